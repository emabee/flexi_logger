(* Soundness of the stream / tail, tiling and merge oracles: what one of them accepts has the property it stands for. *)
Require Import FL.Base.Bytes FL.Base.BytesFacts FL.Names.NamesFacts
  FL.Oracles.O_Flw FL.Oracles.O_Stream FL.Oracles.O_Merge.
From Coq Require Import Permutation.

(* ---------- O_Flw ---------- *)

Lemma list_beq_eq a : forall b, list_beq a b = true -> a = b.
Proof.
  induction a as [|x a IH]; intros [|y b]; cbn [list_beq]; try discriminate; [reflexivity|].
  intros H. apply andb_prop in H. destruct H as [H1 H2]. apply beq_eq in H1. subst y. f_equal. apply IH. exact H2.
Qed.

(* ---------- O_Stream ---------- *)

Lemma oracle_tail_sound c logged l : oracle_tail c logged l = true -> exists pre, logged = pre ++ stream_of c l.
Proof.
  intros H. apply is_prefix_skipn in H. exists (rev (skipn (length (rev (stream_of c l))) (rev logged))).
  apply (f_equal (@rev N)) in H. rewrite rev_involutive, rev_app_distr, rev_involutive in H. exact H.
Qed.

Lemma remove_nth_perm {A} (l : list A) : forall i x, nth_error l i = Some x -> Permutation l (x :: remove_nth i l).
Proof.
  induction l as [|y r IH]; intros [|i] x H; try discriminate.
  - injection H as ->. reflexivity.
  - cbn [nth_error] in H. cbn [remove_nth]. eapply perm_trans; [constructor; apply (IH i x H) | apply perm_swap].
Qed.

Lemma existsb_from_spec {A} (p : nat -> A -> bool) : forall l i, existsb_from p i l = true ->
  exists j x, nth_error l j = Some x /\ p (i + j)%nat x = true.
Proof.
  induction l as [|y r IH]; intros i H; [discriminate|]. cbn [existsb_from] in H. apply Bool.orb_true_iff in H. destruct H as [H|H].
  - exists 0%nat, y. split; [reflexivity|]. rewrite Nat.add_0_r. exact H.
  - destruct (IH (S i) H) as [j [x [Hn Hp]]]. exists (S j), x. split; [exact Hn|]. rewrite Nat.add_succ_r. exact Hp.
Qed.

(* if the oracle accepts, some arrangement (a permutation) of the files concatenates to exactly the logged bytes:
   nothing lost, nothing duplicated, every file a contiguous run of the log in logging order *)
Lemma tiles_sound : forall fuel files logged, tiles fuel files logged = true ->
  exists arrangement, Permutation files arrangement /\ concat arrangement = logged.
Proof.
  induction fuel as [|f IH]; intros files logged H.
  - destruct files; [|discriminate]. destruct logged; [|discriminate]. exists []. split; [constructor | reflexivity].
  - destruct files as [|f0 fr] eqn:Ef.
    + destruct logged; [|discriminate]. exists []. split; [constructor | reflexivity].
    + rewrite <- Ef in *. assert (H' : existsb_from (fun i x => is_prefix x logged && tiles f (remove_nth i files) (skipn (length x) logged)) 0%nat files = true).
      { rewrite Ef in H |- *. exact H. }
      destruct (existsb_from_spec _ _ _ H') as [j [x [Hn Hp]]]. cbn [Nat.add] in Hp.
      apply andb_prop in Hp. destruct Hp as [Hp Ht]. destruct (IH _ _ Ht) as [arr [P C]].
      exists (x :: arr). split.
      * eapply perm_trans; [apply (remove_nth_perm files j x Hn) | constructor; exact P].
      * cbn [concat]. rewrite C. symmetry. apply is_prefix_skipn. exact Hp.
Qed.

Lemma oracle_tiles_sound files logged : oracle_tiles files logged = true ->
  exists arrangement, Permutation (nonempty files) arrangement /\ concat arrangement = logged.
Proof. apply tiles_sound. Qed.

(* ---------- O_Merge ---------- *)

Lemma take_line_spec l : forall ts ts', take_line l ts = Some ts' ->
  exists ts1 r ts2, ts = ts1 ++ (l :: r) :: ts2 /\ ts' = ts1 ++ r :: ts2.
Proof.
  induction ts as [|t rest IH]; intros ts' H; [discriminate|]. cbn [take_line] in H. destruct t as [|x r].
  - destruct (take_line l rest) as [rest'|] eqn:E; [|discriminate]. injection H as <-.
    destruct (IH rest' eq_refl) as [ts1 [r [ts2 [-> ->]]]]. exists ([] :: ts1), r, ts2. split; reflexivity.
  - destruct (beq_spec x l) as [->|N].
    + injection H as <-. exists [], r, rest. split; reflexivity.
    + destruct (take_line l rest) as [rest'|] eqn:E; [|discriminate]. injection H as <-.
      destruct (IH rest' eq_refl) as [ts1 [r' [ts2 [-> ->]]]]. exists ((x :: r) :: ts1), r', ts2. split; reflexivity.
Qed.

Lemma merge_check_sound : forall obs ts, merge_check ts obs = true -> Merge ts obs.
Proof.
  induction obs as [|l r IH]; intros ts H; cbn [merge_check] in H.
  - apply merge_done. apply Forall_forall. intros t Ht. rewrite forallb_forall in H. specialize (H t Ht). destruct t; [reflexivity | discriminate].
  - destruct (take_line l ts) as [ts'|] eqn:E; [|discriminate].
    destruct (take_line_spec l ts ts' E) as [ts1 [r' [ts2 [-> ->]]]]. apply merge_step. apply IH. exact H.
Qed.

Lemma all_nil_concat {A} (ts : list (list A)) : Forall (fun t => t = []) ts -> concat ts = [].
Proof. induction 1 as [|t ts -> _ IH]; [reflexivity | exact IH]. Qed.

Lemma merge_length ts m : Merge ts m -> length m = length (concat ts).
Proof.
  induction 1 as [ts Hall | ts1 x r ts2 m HM IH].
  - rewrite (all_nil_concat ts Hall). reflexivity.
  - cbn [length]. rewrite IH, !concat_app. cbn [concat]. rewrite !app_length. cbn [length]. lia.
Qed.
