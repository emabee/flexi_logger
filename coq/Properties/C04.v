(* C04 - flush, shutdown, drop.  Statements only. *)
Require Import FL.Base.Bytes FL.Fs.Fs FL.Names.FileSpec FL.Flw.Model FL.Flw.Run FL.Flw.NumInv FL.Flw.NumRun FL.Flw.NumTheorems.

(* once the writer has been stopped (shutdown + drop of the last handle) the directory holds every byte that
   was written before, for every history, criterion and buffer capacity (Numbers naming): nothing stays behind
   in a buffer *)
Theorem C04_stop_durable :
  forall c crit t0 off ops,
    numcfg c crit -> Forall basic_op ops ->
    exists files, reads c (wfs (s_w (fst (run (sys0 t0 off) (OStart c :: ops ++ [OStop]))))) files
      /\ concat files = written ops.
Proof. exact numbers_stream. Qed.

Check C04_stop_durable.
Print Assumptions C04_stop_durable.

(* ------------------------------------------------------------------ the asynchronous mode *)
(* C04 - flush, shutdown and handle drop leave no accepted record behind: flush in every mode, drop in the
   asynchronous mode (the synchronous drop is C04_stop_durable).  Statements only (proofs: Flw/NumAsync.v).
   Asynchronous mode: "after the flush" means after the writer thread has consumed the flush message; in the model
   and in the test harness that is before the next operation starts (scheduling assumption) - flush() itself gives
   the caller no acknowledgement. *)
Require Import FL.Oracles.O_Flw FL.Flw.NumAsync.

Theorem C04_flush_durable_async :
  forall c crit t0 off ops,
    numacfg c crit -> Forall basic_op ops ->
    let x := fst (run (sys0 t0 off) (OStart c :: ops ++ [OFlush])) in
    exists files, reads c (wfs (s_w x)) files /\ concat files = written ops
      /\ pending x = [] /\ s_dead x = false
      /\ (forall m, crit = CSize m -> files = expected_files m None (items false ops)).
Proof. exact async_flush_durable. Qed.

Theorem C04_stop_durable_async :
  forall c crit t0 off ops,
    numacfg c crit -> Forall basic_op ops ->
    let x := fst (run (sys0 t0 off) (OStart c :: ops ++ [OStop])) in
    exists files, reads c (wfs (s_w x)) files /\ concat files = written ops
      /\ pending x = [] /\ s_flw x = None /\ s_dead x = true
      /\ (forall m, crit = CSize m -> files = expected_files m None (items false ops)).
Proof. exact async_stop_durable. Qed.

(* Direct and buffered mode: after a flush the directory holds every byte written so far *)
Theorem C04_flush_durable_sync :
  forall c crit t0 off ops,
    numcfg c crit -> Forall basic_op ops ->
    let x := fst (run (sys0 t0 off) (OStart c :: ops ++ [OFlush])) in
    exists files, reads c (wfs (s_w x)) files /\ concat files = written ops
      /\ pending x = []
      /\ (forall m, crit = CSize m -> files = expected_files m None (items false ops)).
Proof. exact sync_flush_durable. Qed.

(* limit: after shutdown() without drop an asynchronous writer accepts log calls (Ok) and loses the records *)
Theorem C04_async_dead_write_lost :
  forall x s b, s_flw x = Some s -> c_async (f_cfg s) = true -> s_dead x = true ->
    s_w (fst (step x (OWrite b))) = s_w x /\ snd (step x (OWrite b)) = ObsRes 0%N false.
Proof. exact async_dead_write_lost. Qed.

Check C04_flush_durable_async. Check C04_stop_durable_async. Check C04_flush_durable_sync. Check C04_async_dead_write_lost.
Print Assumptions C04_flush_durable_async.
Print Assumptions C04_stop_durable_async.
Print Assumptions C04_flush_durable_sync.
Print Assumptions C04_async_dead_write_lost.

(* ------------------------------------------------------------------ the other three naming schemes, every write mode *)
(* C04 for NumbersDirect, TimestampsDirect and Timestamps naming; numdmcfg / tsdmcfg / tsmcfg: ANY write mode (Direct,
   BufWriter of any capacity, asynchronous).  Statements only (proofs: Flw/NumDAsync.v, Flw/TsdAsync.v, Flw/TsAsync.v).
   Asynchronous mode: "after the flush" is after the writer thread has consumed the flush message (scheduling assumption). *)
Require Import FL.Time.Civil FL.Oracles.O_Flw FL.Flw.NumDInv FL.Flw.NumDRun FL.Flw.NumDTheorems FL.Flw.TsCal FL.Flw.TsTime FL.Flw.TsNames FL.Flw.TsInv
  FL.Flw.TsRun FL.Flw.TsTheorems FL.Flw.TsdInv FL.Flw.TsdRun FL.Flw.TsdTheorems
  FL.Flw.AsyncTransfer FL.Flw.NumDAsync FL.Flw.TsdAsync FL.Flw.TsAsync.

Theorem C04_flush_durable_numbersdirect :
  forall c crit t0 off ops,
    numdmcfg c crit -> Forall basic_op ops ->
    let x := fst (run (sys0 t0 off) (OStart c :: ops ++ [OFlush])) in
    exists files, direct_view c (wfs (s_w x)) files /\ concat files = written ops
      /\ pending x = []
      /\ (forall m, crit = CSize m -> files = expected_files m None (items false ops)).
Proof. exact numd_flush_durable. Qed.

Theorem C04_stop_durable_numbersdirect :
  forall c crit t0 off ops,
    numdmcfg c crit -> Forall basic_op ops ->
    let x := fst (run (sys0 t0 off) (OStart c :: ops ++ [OStop])) in
    exists files, direct_view c (wfs (s_w x)) files /\ concat files = written ops
      /\ pending x = [] /\ s_flw x = None
      /\ (forall m, crit = CSize m -> files = expected_files m None (items false ops)).
Proof. exact numd_stop_durable. Qed.

Theorem C04_flush_durable_timestampsdirect :
  forall c crit t0 off ops,
    tsdmcfg c crit -> tag_ok c -> Forall basic_op ops -> Forall tick_ok ops ->
    (0 <= t0 + ts_e c off)%Z -> (t0 + elapsed ops + ts_e c off < sec_max)%Z -> (N.of_nat (S (length ops)) <= usize_max)%N ->
    let x := fst (run (sys0 t0 off) (OStart c :: ops ++ [OFlush])) in
    exists keys files,
      tsd_view c (ts_e c off) (wfs (s_w x)) keys files /\ concat files = written ops
      /\ keys_ok keys /\ (forall k, In k keys -> (t0 <= fst k <= t0 + elapsed ops)%Z)
      /\ pending x = []
      /\ (forall m, crit = CSize m -> files = expected_files m None (items false ops) /\ keys = tsd_keys m t0 ops).
Proof. exact tsd_flush_durable. Qed.

Theorem C04_stop_durable_timestampsdirect :
  forall c crit t0 off ops,
    tsdmcfg c crit -> tag_ok c -> Forall basic_op ops -> Forall tick_ok ops ->
    (0 <= t0 + ts_e c off)%Z -> (t0 + elapsed ops + ts_e c off < sec_max)%Z -> (N.of_nat (length ops) <= usize_max)%N ->
    let x := fst (run (sys0 t0 off) (OStart c :: ops ++ [OStop])) in
    exists keys files,
      tsd_view c (ts_e c off) (wfs (s_w x)) keys files /\ concat files = written ops
      /\ keys_ok keys /\ (forall k, In k keys -> (t0 <= fst k <= t0 + elapsed ops)%Z)
      /\ pending x = [] /\ s_flw x = None
      /\ (forall m, crit = CSize m -> files = expected_files m None (items false ops) /\ keys = tsd_keys m t0 ops).
Proof. exact tsd_stop_durable. Qed.

Theorem C04_flush_durable_timestamps :
  forall c crit t0 off ops,
    tsmcfg c crit -> tag_ok c -> Forall basic_op ops -> Forall tick_ok ops ->
    (0 <= t0 + ts_e c off)%Z -> (t0 + elapsed ops + ts_e c off < sec_max)%Z -> (N.of_nat (S (length ops)) <= usize_max)%N ->
    let x := fst (run (sys0 t0 off) (OStart c :: ops ++ [OFlush])) in
    exists keys a,
      ts_dir c (ts_e c off) (wfs (s_w x)) keys a /\ flat a = written ops
      /\ keys_ok keys /\ (forall k, In k keys -> (t0 <= fst k <= t0 + elapsed ops)%Z)
      /\ pending x = []
      /\ (forall m, crit = CSize m ->
            a = s_run m None ops /\ files_of a = expected_files m None (items false ops) /\ keys = ts_keys m t0 ops).
Proof. exact ts_flush_durable. Qed.

Theorem C04_stop_durable_timestamps :
  forall c crit t0 off ops,
    tsmcfg c crit -> tag_ok c -> Forall basic_op ops -> Forall tick_ok ops ->
    (0 <= t0 + ts_e c off)%Z -> (t0 + elapsed ops + ts_e c off < sec_max)%Z -> (N.of_nat (length ops) <= usize_max)%N ->
    let x := fst (run (sys0 t0 off) (OStart c :: ops ++ [OStop])) in
    exists keys a,
      ts_dir c (ts_e c off) (wfs (s_w x)) keys a /\ flat a = written ops
      /\ keys_ok keys /\ (forall k, In k keys -> (t0 <= fst k <= t0 + elapsed ops)%Z)
      /\ pending x = [] /\ s_flw x = None
      /\ (forall m, crit = CSize m ->
            a = s_run m None ops /\ files_of a = expected_files m None (items false ops) /\ keys = ts_keys m t0 ops).
Proof. exact ts_stop_durable. Qed.

(* asynchronous mode: in addition the writer thread is still running after the flush, and gone after the drop *)
Theorem C04_flush_durable_async_numbersdirect :
  forall c crit t0 off ops,
    numdacfg c crit -> Forall basic_op ops ->
    let x := fst (run (sys0 t0 off) (OStart c :: ops ++ [OFlush])) in
    exists files, direct_view c (wfs (s_w x)) files /\ concat files = written ops
      /\ pending x = [] /\ s_dead x = false
      /\ (forall m, crit = CSize m -> files = expected_files m None (items false ops)).
Proof. exact async_numd_flush_durable. Qed.

Theorem C04_stop_durable_async_numbersdirect :
  forall c crit t0 off ops,
    numdacfg c crit -> Forall basic_op ops ->
    let x := fst (run (sys0 t0 off) (OStart c :: ops ++ [OStop])) in
    exists files, direct_view c (wfs (s_w x)) files /\ concat files = written ops
      /\ pending x = [] /\ s_flw x = None /\ s_dead x = true
      /\ (forall m, crit = CSize m -> files = expected_files m None (items false ops)).
Proof. exact async_numd_stop_durable. Qed.

Theorem C04_flush_durable_async_timestampsdirect :
  forall c crit t0 off ops,
    tsdacfg c crit -> tag_ok c -> Forall basic_op ops -> Forall tick_ok ops ->
    (0 <= t0 + ts_e c off)%Z -> (t0 + elapsed ops + ts_e c off < sec_max)%Z -> (N.of_nat (S (length ops)) <= usize_max)%N ->
    let x := fst (run (sys0 t0 off) (OStart c :: ops ++ [OFlush])) in
    exists keys files,
      tsd_view c (ts_e c off) (wfs (s_w x)) keys files /\ concat files = written ops
      /\ keys_ok keys /\ (forall k, In k keys -> (t0 <= fst k <= t0 + elapsed ops)%Z)
      /\ pending x = [] /\ s_dead x = false
      /\ (forall m, crit = CSize m -> files = expected_files m None (items false ops) /\ keys = tsd_keys m t0 ops).
Proof. exact async_tsd_flush_durable. Qed.

Theorem C04_stop_durable_async_timestampsdirect :
  forall c crit t0 off ops,
    tsdacfg c crit -> tag_ok c -> Forall basic_op ops -> Forall tick_ok ops ->
    (0 <= t0 + ts_e c off)%Z -> (t0 + elapsed ops + ts_e c off < sec_max)%Z -> (N.of_nat (length ops) <= usize_max)%N ->
    let x := fst (run (sys0 t0 off) (OStart c :: ops ++ [OStop])) in
    exists keys files,
      tsd_view c (ts_e c off) (wfs (s_w x)) keys files /\ concat files = written ops
      /\ keys_ok keys /\ (forall k, In k keys -> (t0 <= fst k <= t0 + elapsed ops)%Z)
      /\ pending x = [] /\ s_flw x = None /\ s_dead x = true
      /\ (forall m, crit = CSize m -> files = expected_files m None (items false ops) /\ keys = tsd_keys m t0 ops).
Proof. exact async_tsd_stop_durable. Qed.

Theorem C04_flush_durable_async_timestamps :
  forall c crit t0 off ops,
    tsacfg c crit -> tag_ok c -> Forall basic_op ops -> Forall tick_ok ops ->
    (0 <= t0 + ts_e c off)%Z -> (t0 + elapsed ops + ts_e c off < sec_max)%Z -> (N.of_nat (S (length ops)) <= usize_max)%N ->
    let x := fst (run (sys0 t0 off) (OStart c :: ops ++ [OFlush])) in
    exists keys a,
      ts_dir c (ts_e c off) (wfs (s_w x)) keys a /\ flat a = written ops
      /\ keys_ok keys /\ (forall k, In k keys -> (t0 <= fst k <= t0 + elapsed ops)%Z)
      /\ pending x = [] /\ s_dead x = false
      /\ (forall m, crit = CSize m ->
            a = s_run m None ops /\ files_of a = expected_files m None (items false ops) /\ keys = ts_keys m t0 ops).
Proof. exact async_ts_flush_durable. Qed.

Theorem C04_stop_durable_async_timestamps :
  forall c crit t0 off ops,
    tsacfg c crit -> tag_ok c -> Forall basic_op ops -> Forall tick_ok ops ->
    (0 <= t0 + ts_e c off)%Z -> (t0 + elapsed ops + ts_e c off < sec_max)%Z -> (N.of_nat (length ops) <= usize_max)%N ->
    let x := fst (run (sys0 t0 off) (OStart c :: ops ++ [OStop])) in
    exists keys a,
      ts_dir c (ts_e c off) (wfs (s_w x)) keys a /\ flat a = written ops
      /\ keys_ok keys /\ (forall k, In k keys -> (t0 <= fst k <= t0 + elapsed ops)%Z)
      /\ pending x = [] /\ s_flw x = None /\ s_dead x = true
      /\ (forall m, crit = CSize m ->
            a = s_run m None ops /\ files_of a = expected_files m None (items false ops) /\ keys = ts_keys m t0 ops).
Proof. exact async_ts_stop_durable. Qed.

Check C04_flush_durable_numbersdirect. Check C04_stop_durable_numbersdirect.
Check C04_flush_durable_timestampsdirect. Check C04_stop_durable_timestampsdirect.
Check C04_flush_durable_timestamps. Check C04_stop_durable_timestamps.
Print Assumptions C04_flush_durable_numbersdirect.
Print Assumptions C04_stop_durable_numbersdirect.
Print Assumptions C04_flush_durable_timestampsdirect.
Print Assumptions C04_stop_durable_timestampsdirect.
Print Assumptions C04_flush_durable_timestamps.
Print Assumptions C04_stop_durable_timestamps.
Print Assumptions C04_flush_durable_async_numbersdirect.
Print Assumptions C04_stop_durable_async_numbersdirect.
Print Assumptions C04_flush_durable_async_timestampsdirect.
Print Assumptions C04_stop_durable_async_timestampsdirect.
Print Assumptions C04_flush_durable_async_timestamps.
Print Assumptions C04_stop_durable_async_timestamps.
