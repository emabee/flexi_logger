(* C02 - a record is written iff the active specification (and text filter) enables it.  Statements only. *)
Require Import FL.LogSpec.Spec FL.LogSpec.SpecFacts FL.LogSpec.Dispatch FL.LogSpec.DispatchFacts.
Open Scope nat_scope.

(* The filtering decision of a specification built from ANY list of filters (each module named at most once, no
   empty name, at most one default): the answer computed by the first-match loop over the length-sorted list is
   the level test of a best filter - one whose name is a prefix of the target (the default counting as the empty
   prefix) and such that no matching filter has a longer name - or false if nothing matches. *)
Theorem C02_longest_prefix :
  forall (fs : list mfilter) (lvl : level) (t : ustr),
    wf_filters fs -> spec_enabled fs lvl t (enabled (level_sort fs) lvl t).
Proof. exact longest_prefix. Qed.

(* ... and that description determines the answer: the best filter is unique, the relation is a function. *)
Theorem C02_best_unique :
  forall fs lvl t b1 b2, wf_filters fs -> spec_enabled fs lvl t b1 -> spec_enabled fs lvl t b2 -> b1 = b2.
Proof. exact spec_enabled_fun. Qed.

(* A record addressed to the default channel (its target is not a brace list) is passed on - to the primary
   writer, and first to the line filter when one is installed - iff the active specification enables its level
   for its target and the text filter (if any) matches the message; no additional writer sees it. *)
Theorem C02_route :
  forall rm lg r, brace_target (r_target r) = false ->
    log_record rm lg r =
    Done (if enabled (sp_filters (lg_spec lg)) (r_level r) (r_target r) && text_ok rm lg r
          then (if lg_filter lg then [EvFilter] else [])
               ++ [EvPrimary (dup_match (lg_dup_err lg) (r_level r)) (dup_match (lg_dup_out lg) (r_level r))]
          else []).
Proof. intros rm lg r H. rewrite (log_record_plain rm lg r H). reflexivity. Qed.

(* In every state reachable from a freshly built logger through any sequence of handle operations the global
   gate (log::max_level) admits every record the active specification enables for any target, and every record an
   additional writer accepts. *)
Theorem C02_gate :
  forall re_ok s ws de dq flt ops, let lg := hrun re_ok (new_logger s ws de dq flt) ops in
    (forall lvl t, enabled (sp_filters (lg_spec lg)) lvl t = true -> lvl <= lg_gate lg)
    /\ (forall w lvl, In w ws -> lvl <= ow_max w -> lvl <= lg_gate lg).
Proof.
  intros re_ok s ws de dq flt ops lg.
  destruct (hrun_gate re_ok ops (new_logger s ws de dq flt) eq_refl) as [G O]. fold lg in G, O. cbn [new_logger lg_others] in O.
  split.
  - intros lvl t H. apply enabled_le_max in H. rewrite G. pose proof (gate_ge_spec (lg_others lg) (lg_spec lg)). lia.
  - intros w lvl I L. rewrite G, O. pose proof (gate_ge_writer ws (lg_spec lg) w I). lia.
Qed.

(* Whenever log() delivers a record anywhere - to the primary writer, or to an additional writer within its
   ceiling - the enabled() query for the same level and target answers true. *)
Theorem C02_enabled_query :
  forall rm lg r evs e, log_record rm lg r = Done evs -> In e evs -> delivered lg (r_level r) e ->
    exists evs', enabled_query lg (r_level r) (r_target r) = Done (true, evs').
Proof. exact query_true_if_delivered. Qed.

(* non-vacuity: a specification with prefix-related names and a level word as a name satisfies wf_filters *)
Example C02_nonvacuous :
  wf_filters [(Some [97%N], 4); (Some [97%N; 58%N; 58%N; 98%N], 0); (Some w_info, 5); (None, 2)]
  /\ enabled (level_sort [(Some [97%N], 4); (Some [97%N; 58%N; 58%N; 98%N], 0); (Some w_info, 5); (None, 2)]) 3 [97%N; 58%N; 58%N; 98%N; 99%N] = false
  /\ enabled (level_sort [(Some [97%N], 4); (Some [97%N; 58%N; 58%N; 98%N], 0); (Some w_info, 5); (None, 2)]) 3 [97%N; 98%N] = true.
Proof.
  split; [split|split; vm_compute; reflexivity].
  - cbn [List.map fst]. repeat constructor; cbn [In]; intuition discriminate.
  - intros f [<-|[<-|[<-|[<-|[]]]]]; discriminate.
Qed.

Check C02_longest_prefix. Check C02_best_unique. Check C02_route. Check C02_gate. Check C02_enabled_query.
Print Assumptions C02_longest_prefix.
Print Assumptions C02_gate.
Print Assumptions C02_enabled_query.
