(* C01 - the rotated stream is complete, duplicate-free and in order.  Statements only. *)
Require Import FL.Base.Bytes FL.Fs.Fs FL.Flw.Model FL.Flw.Run FL.Flw.NumInv FL.Flw.NumRun
  FL.Oracles.O_Flw FL.Flw.NumTheorems.

(* Numbers naming, every criterion (size, age, age-or-size), every buffer capacity, append on or off, every
   history of writes / raw chunks / flushes / triggered rotations / clock ticks from an empty directory:
   after the writer is stopped the directory holds exactly r00000 .. r(k-1) and rCURRENT, and read in this
   order they yield exactly the written bytes, once, in order. *)
Theorem C01_stream_numbers :
  forall c crit t0 off ops,
    numcfg c crit -> Forall basic_op ops ->
    exists files, reads c (wfs (s_w (fst (run (sys0 t0 off) (OStart c :: ops ++ [OStop]))))) files
      /\ concat files = written ops.
Proof. exact numbers_stream. Qed.

Theorem C01_oracle_sound :
  forall start its files, oracle_C01 start its files = true ->
    concat files = (match start with Some s => s | None => [] end) ++ recs_of its.
Proof. intros start its files H. apply BytesFacts.beq_eq. exact H. Qed.

Require Import FL.Flw.NumDInv FL.Flw.NumDRun FL.Flw.NumDTheorems.
(* the same for NumbersDirect naming (no rCURRENT: r00000, r00001, ... are written directly) *)
Theorem C01_stream_numbersdirect c crit t0 off ops :
  numdcfg c crit -> Forall basic_op ops ->
  exists files, direct_view c (wfs (s_w (fst (run (sys0 t0 off) (OStart c :: ops ++ [OStop]))))) files
    /\ concat files = written ops.
Proof. exact (numbersdirect_stream c crit t0 off ops). Qed.

Require Import FL.Flw.NumRestart FL.Flw.TsTime FL.Flw.TsNames FL.Flw.TsInv FL.Flw.TsRun FL.Flw.TsTheorems FL.Flw.TsReader FL.Oracles.ReaderOrder.
(* Timestamps naming (rCURRENT; a closed file is named by the second in which it was started, made collision-free by
   .restart-NNNN): every criterion, buffer capacity, append flag, local time or UTC, every history in which the clock does not go
   backwards, up to the year 9999: the closed files - named by pairwise distinct keys (second, position within the second) that
   increase in closing order - and rCURRENT hold exactly the written bytes (hypothesis tag_ok: neither the fixed name part nor the
   suffix contains a time stamp infix followed by ".restart-", and the suffix does not start with "restart-"; a basename like
   "a.restart-7" is fine; the condition on the start of the suffix is shown necessary by an example in Flw/TsTheorems.v) *)
Theorem C01_stream_timestamps c crit t0 off ops :
  tscfg c crit -> tag_ok c -> Forall basic_op ops -> Forall tick_ok ops ->
  (0 <= t0 + ts_e c off)%Z -> (t0 + elapsed ops + ts_e c off < sec_max)%Z -> (N.of_nat (length ops) <= usize_max)%N ->
  let f := wfs (s_w (fst (run (sys0 t0 off) (OStart c :: ops ++ [OStop])))) in
  (names f = [] /\ written ops = [])
  \/ exists keys closed cur,
       ts_view c (ts_e c off) f keys closed cur
       /\ concat closed ++ cur = written ops
       /\ keys_ok keys
       /\ (forall k, In k keys -> (t0 <= fst k <= t0 + elapsed ops)%Z).
Proof. exact (timestamps_stream c crit t0 off ops). Qed.

(* ... and the reader of the executable oracle (files ordered by parsed infix) reads them in exactly that order *)
Theorem C01_reader_timestamps c crit t0 off ops :
  tscfg c crit -> tag_ok c -> not_gz c -> Forall basic_op ops -> Forall tick_ok ops ->
  (0 <= t0 + ts_e c off)%Z -> (t0 + elapsed ops + ts_e c off < sec_max)%Z -> (N.of_nat (length ops) <= usize_max)%N ->
  let x := fst (run (sys0 t0 off) (OStart c :: ops ++ [OStop])) in
  concat (family_in_order c (snap_of x)) = written ops
  /\ ((names (wfs (s_w x)) = [] /\ family_in_order c (snap_of x) = [])
      \/ exists keys closed cur, ts_view c (ts_e c off) (wfs (s_w x)) keys closed cur /\ keys_ok keys
                                 /\ family_in_order c (snap_of x) = closed ++ [cur]).
Proof. exact (timestamps_reader c crit t0 off ops). Qed.

Require Import FL.Flw.TsdInv FL.Flw.TsdRun FL.Flw.TsdTheorems.
(* TimestampsDirect naming (no rCURRENT: each file carries the second in which it was started): the same *)
Theorem C01_stream_timestampsdirect c crit t0 off ops :
  tsdcfg c crit -> tag_ok c -> Forall basic_op ops -> Forall tick_ok ops ->
  (0 <= t0 + ts_e c off)%Z -> (t0 + elapsed ops + ts_e c off < sec_max)%Z -> (N.of_nat (length ops) <= usize_max)%N ->
  let f := wfs (s_w (fst (run (sys0 t0 off) (OStart c :: ops ++ [OStop])))) in
  (names f = [] /\ written ops = [])
  \/ exists keys files,
       files <> []
       /\ tsd_view c (ts_e c off) f keys files
       /\ concat files = written ops
       /\ keys_ok keys
       /\ (forall k, In k keys -> (t0 <= fst k <= t0 + elapsed ops)%Z).
Proof. exact (timestampsdirect_stream c crit t0 off ops). Qed.

(* ... and the oracle's reader reads them in that order *)
Theorem C01_reader_timestampsdirect c crit t0 off ops :
  tsdcfg c crit -> tag_ok c -> not_gz c -> Forall basic_op ops -> Forall tick_ok ops ->
  (0 <= t0 + ts_e c off)%Z -> (t0 + elapsed ops + ts_e c off < sec_max)%Z -> (N.of_nat (length ops) <= usize_max)%N ->
  let x := fst (run (sys0 t0 off) (OStart c :: ops ++ [OStop])) in
  concat (family_in_order c (snap_of x)) = written ops
  /\ exists keys files, tsd_view c (ts_e c off) (wfs (s_w x)) keys files /\ keys_ok keys
                        /\ (forall k, In k keys -> (t0 <= fst k <= t0 + elapsed ops)%Z)
                        /\ family_in_order c (snap_of x) = files.
Proof. exact (timestampsdirect_reader c crit t0 off ops). Qed.

Check C01_stream_numbers.
Print Assumptions C01_stream_numbers.
Print Assumptions C01_oracle_sound.
Check C01_stream_numbersdirect.
Print Assumptions C01_stream_numbersdirect.
Check C01_stream_timestamps.
Print Assumptions C01_stream_timestamps.
Check C01_reader_timestamps.
Print Assumptions C01_reader_timestamps.
Check C01_stream_timestampsdirect.
Print Assumptions C01_stream_timestampsdirect.
Check C01_reader_timestampsdirect.
Print Assumptions C01_reader_timestampsdirect.
