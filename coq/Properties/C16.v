(* C16 - names as documented; path-derived specs.  Statements only. *)
Require Import FL.Base.Bytes FL.Base.BytesFacts FL.Base.PathName FL.Names.FileSpec FL.Flw.Model FL.Oracles.O_Names FL.Oracles.ReaderOrder FL.Names.FamilyFacts FL.Flw.CleanupFacts.

(* FileSpec::try_from(p) takes the stem as basename and the extension as suffix; as_pathbuf puts them together
   again with a dot: for every file name the result is the name itself, so the derived spec denotes exactly p *)
Theorem C16_stem_ext_roundtrip :
  forall name, file_stem name ++ (match extension name with Some e => dot :: e | None => [] end) = name.
Proof. intros name. symmetry. apply split_at_last_dot_spec. Qed.

(* when no part is empty-but-present, the documented fixed part is the one the code computes *)
Theorem C16_doc_fixed_is_fixed :
  forall sp t, fdisc sp <> Some [] -> (fts sp = true -> t <> []) -> doc_fixed sp t = fixed_name_part sp t.
Proof.
  intros [b d ts s] t Hd Ht. unfold doc_fixed, fixed_name_part, under. cbn [fbase fdisc fts] in *.
  destruct b as [|b0 br], d as [[|d0 dr]|], ts; try (exfalso; apply Hd; reflexivity);
    try (destruct t as [|t0 tr]; [exfalso; apply Ht; reflexivity|]); cbn [filter join app]; rewrite <- ?app_assoc; reflexivity.
Qed.

(* a name built from the parts is recognised again with the same infix (unless the name ends with .gz, which
   stands for a compressed file): building and recognising family names are inverse to each other *)
Theorem C16_name_roundtrip : forall sp fixed infix,
  infix <> [] ->
  strip_suffix (dot :: gz_sfx) (as_name sp fixed (Some infix)) = None ->
  full_infix sp fixed (as_name sp fixed (Some infix)) = Some infix.
Proof. exact full_infix_as_name. Qed.

Require Import FL.Fs.Fs FL.Flw.Run FL.Flw.NumInv FL.Flw.NumRun FL.Flw.NumRestart FL.Flw.NumDInv FL.Flw.NumDRun FL.Flw.TsTime FL.Flw.TsNames FL.Flw.TsInv FL.Flw.TsRun FL.Flw.TsTheorems FL.Flw.TsReader FL.Flw.NumCleanupNames FL.Flw.NumCleanupStep FL.Flw.NumCleanupRun FL.Flw.NumCleanup FL.Flw.NoPanic FL.Flw.NamesDocumented FL.Flw.ListingExact FL.Oracles.O_Names.
(* END TO END: every file that any history of a Numbers-naming writer leaves is named as documented (the oracle name_documented that
   is applied to the implementation accepts it); hypothesis: the suffix does not end in .gz *)
Theorem C16_numbers_names_documented c crit t0 off ops :
  numcfg c crit -> not_gz c -> Forall basic_op ops ->
  all_documented c (wfs (s_w (fst (run (sys0 t0 off) (OStart c :: ops ++ [OStop]))))).
Proof. exact (numbers_names_documented c crit t0 off ops). Qed.

(* ... also with a cleanup strategy (archives) *)
Theorem C16_numbers_cleanup_names_documented c crit k t0 off ops :
  numkcfg c crit k -> not_gz c -> Forall basic_op ops ->
  kside c k (nclosed (a_run None ops (snd (run (fst (step (sys0 t0 off) (OStart c))) ops)))) ->
  all_documented c (wfs (s_w (fst (run (sys0 t0 off) (OStart c :: ops ++ [OStop]))))).
Proof. exact (numbers_cleanup_names_documented c crit k t0 off ops). Qed.

(* NumbersDirect naming *)
Theorem C16_numbersdirect_names_documented c crit t0 off ops :
  numdcfg c crit -> not_gz c -> Forall basic_op ops ->
  all_documented c (wfs (s_w (fst (run (sys0 t0 off) (OStart c :: ops ++ [OStop]))))).
Proof. exact (numbersdirect_names_documented c crit t0 off ops). Qed.

(* Timestamps naming *)
Theorem C16_timestamps_names_documented c crit t0 off ops :
  tscfg c crit -> tag_ok c -> not_gz c -> Forall basic_op ops -> Forall tick_ok ops ->
  (0 <= t0 + ts_e c off)%Z -> (t0 + elapsed ops + ts_e c off < sec_max)%Z -> (N.of_nat (length ops) <= usize_max)%N ->
  all_documented c (wfs (s_w (fst (run (sys0 t0 off) (OStart c :: ops ++ [OStop]))))).
Proof. exact (timestamps_names_documented c crit t0 off ops). Qed.

(* existing_log_files returns exactly the existing family files that the selector asks for: Numbers naming, any cleanup strategy,
   every history, every selector whose custom current infix, if any, is not the infix of a rotated file (a number infix); rCURRENT
   asked for twice - with_r_current and with_custom_current("rCURRENT") - is listed once *)
Theorem C16_numbers_listing_exact c crit k t0 off ops sel :
  numkcfg c crit k -> not_gz c -> Forall basic_op ops -> custom_ok sel ->
  kside c k (nclosed (a_run None ops (snd (run (fst (step (sys0 t0 off) (OStart c))) ops)))) ->
  let x := fst (run (sys0 t0 off) (OStart c :: ops)) in
  exists l, step x (OQuery sel) = (x, ObsList 0%N l)
            /\ oracle_listing sel c (snap_of x) l = true
            /\ sort_names l = expected_listing sel c (snap_of x).
Proof. exact (numbers_listing_exact c crit k t0 off ops sel). Qed.

(* NumbersDirect naming *)
Theorem C16_numbersdirect_listing_exact c crit t0 off ops sel :
  numdcfg c crit -> not_gz c -> Forall basic_op ops -> custom_ok_d sel ->
  let x := fst (run (sys0 t0 off) (OStart c :: ops)) in
  exists l, step x (OQuery sel) = (x, ObsList 0%N l)
            /\ oracle_listing sel c (snap_of x) l = true
            /\ sort_names l = expected_listing sel c (snap_of x).
Proof. exact (numbersdirect_listing_exact c crit t0 off ops sel). Qed.

(* Timestamps naming *)
Theorem C16_timestamps_listing_exact c crit t0 off ops sel :
  tscfg c crit -> tag_ok c -> not_gz c -> Forall basic_op ops -> Forall tick_ok ops -> custom_ok_ts sel ->
  (0 <= t0 + ts_e c off)%Z -> (t0 + elapsed ops + ts_e c off < sec_max)%Z -> (N.of_nat (length ops) <= usize_max)%N ->
  let x := fst (run (sys0 t0 off) (OStart c :: ops)) in
  exists l, step x (OQuery sel) = (x, ObsList 0%N l)
            /\ oracle_listing sel c (snap_of x) l = true
            /\ sort_names l = expected_listing sel c (snap_of x).
Proof. exact (timestamps_listing_exact c crit t0 off ops sel). Qed.

Require Import FL.Flw.NumDTheorems FL.Flw.TsdInv FL.Flw.TsdRun FL.Flw.TsdTheorems FL.Flw.WorldPar FL.Flw.LinkSim.
(* a configured symlink leads to the file being written, after every operation of every history without failures (before the first write it
   is absent); with a failing open at a rotation it dangles until the next successful open - counterexample ex_link_fault in Flw/LinkSim.v *)
Theorem C16_symlink_points_to_current c t0 off ops :
  c_symlink c = true -> c_async c = false -> Forall basic_op ops ->
  clean_run (fst (step (sys0 t0 off) (OStart (nolink c)))) ops ->
  let x := fst (run (sys0 t0 off) (OStart c :: ops)) in
  exists s, s_flw x = Some s /\
    match f_inner s with
    | Active _ _ path => wlink (s_w x) = Some path
    | Initial => wlink (s_w x) = None
    end.
Proof. exact (symlink_points_to_current c t0 off ops). Qed.

(* Numbers naming: the link is rCURRENT *)
Theorem C16_numbers_symlink_current c crit t0 off ops :
  numcfg (nolink c) crit -> c_symlink c = true -> Forall basic_op ops ->
  wlink (s_w (fst (run (sys0 t0 off) (OStart c :: ops)))) = if has_write ops then Some (cname c) else None.
Proof. exact (numbers_symlink_current c crit t0 off ops). Qed.

(* NumbersDirect naming: the link is the file with the highest number *)
Theorem C16_numbersdirect_symlink_current c crit t0 off ops :
  numdcfg (nolink c) crit -> c_symlink c = true -> Forall basic_op ops ->
  wlink (s_w (fst (run (sys0 t0 off) (OStart c :: ops))))
  = match a_run None ops (snd (run (fst (step (sys0 t0 off) (OStart (nolink c)))) ops)) with
    | Some (closed, _) => Some (rname c (length closed))
    | None => None
    end.
Proof. exact (numbersdirect_symlink_current c crit t0 off ops). Qed.

(* TimestampsDirect naming: the link is the file with the newest key *)
Theorem C16_timestampsdirect_symlink_current c crit t0 off ops :
  tsdcfg (nolink c) crit -> tag_ok c -> c_symlink c = true -> Forall basic_op ops -> Forall tick_ok ops ->
  (0 <= t0 + ts_e c off)%Z -> (t0 + elapsed ops + ts_e c off < sec_max)%Z -> (N.of_nat (length ops) <= usize_max)%N ->
  let x := fst (run (sys0 t0 off) (OStart c :: ops)) in
  if has_write ops
  then exists keys, keys <> [] /\ keys_ok keys /\ dir_is c (ts_e c off) (wfs (s_w x)) keys
         /\ wlink (s_w x) = Some (kname c (ts_e c off) (nth (length keys - 1) keys kd))
  else wlink (s_w x) = None.
Proof. exact (timestampsdirect_symlink_current c crit t0 off ops). Qed.

Check C16_stem_ext_roundtrip. Check C16_doc_fixed_is_fixed.
Print Assumptions C16_stem_ext_roundtrip.
Print Assumptions C16_doc_fixed_is_fixed.
Print Assumptions C16_name_roundtrip.
Check C16_numbers_names_documented.
Print Assumptions C16_numbers_names_documented.
Check C16_numbers_cleanup_names_documented.
Print Assumptions C16_numbers_cleanup_names_documented.
Check C16_numbersdirect_names_documented.
Print Assumptions C16_numbersdirect_names_documented.
Check C16_timestamps_names_documented.
Print Assumptions C16_timestamps_names_documented.
Check C16_numbers_listing_exact.
Print Assumptions C16_numbers_listing_exact.
Check C16_numbersdirect_listing_exact.
Print Assumptions C16_numbersdirect_listing_exact.
Check C16_timestamps_listing_exact.
Print Assumptions C16_timestamps_listing_exact.
Check C16_symlink_points_to_current.
Print Assumptions C16_symlink_points_to_current.
Check C16_numbers_symlink_current.
Print Assumptions C16_numbers_symlink_current.
Check C16_numbersdirect_symlink_current.
Print Assumptions C16_numbersdirect_symlink_current.
Check C16_timestampsdirect_symlink_current.
Print Assumptions C16_timestampsdirect_symlink_current.

Require Import FL.Flw.TsdNames FL.Flw.TsdListing.
(* TimestampsDirect naming: every file of every history is named as documented ... *)
Theorem C16_timestampsdirect_names_documented c crit t0 off ops :
  tsdcfg c crit -> tag_ok c -> not_gz c -> Forall basic_op ops -> Forall tick_ok ops ->
  (0 <= t0 + ts_e c off)%Z -> (t0 + elapsed ops + ts_e c off < sec_max)%Z -> (N.of_nat (length ops) <= usize_max)%N ->
  all_documented c (wfs (s_w (fst (run (sys0 t0 off) (OStart c :: ops ++ [OStop]))))).
Proof. exact (timestampsdirect_names_documented c crit t0 off ops). Qed.

(* ... and existing_log_files returns exactly the existing family files the selector asks for; there is no rCURRENT file in this
   naming: with_r_current and an admissible custom current infix select nothing *)
Theorem C16_timestampsdirect_listing_exact c crit t0 off ops sel :
  tsdcfg c crit -> tag_ok c -> not_gz c -> Forall basic_op ops -> Forall tick_ok ops -> custom_ok_ts sel ->
  (0 <= t0 + ts_e c off)%Z -> (t0 + elapsed ops + ts_e c off < sec_max)%Z -> (N.of_nat (length ops) <= usize_max)%N ->
  let x := fst (run (sys0 t0 off) (OStart c :: ops)) in
  exists l, step x (OQuery sel) = (x, ObsList 0%N l)
            /\ oracle_listing sel c (snap_of x) l = true
            /\ sort_names l = expected_listing sel c (snap_of x).
Proof. exact (timestampsdirect_listing_exact c crit t0 off ops sel). Qed.

Theorem C16_timestampsdirect_listing_no_current c crit t0 off ops sel :
  tsdcfg c crit -> tag_ok c -> not_gz c -> Forall basic_op ops -> Forall tick_ok ops -> custom_ok_ts sel ->
  (0 <= t0 + ts_e c off)%Z -> (t0 + elapsed ops + ts_e c off < sec_max)%Z -> (N.of_nat (length ops) <= usize_max)%N ->
  let x := fst (run (sys0 t0 off) (OStart c :: ops)) in
  exists l l0, step x (OQuery sel) = (x, ObsList 0%N l) /\ step x (OQuery (no_current sel)) = (x, ObsList 0%N l0)
               /\ sort_names l = sort_names l0
               /\ (sel_plain sel = false -> sel_gz sel = false -> l = []).
Proof. exact (timestampsdirect_listing_no_current c crit t0 off ops sel). Qed.

Check C16_timestampsdirect_names_documented.
Print Assumptions C16_timestampsdirect_names_documented.
Check C16_timestampsdirect_listing_exact.
Print Assumptions C16_timestampsdirect_listing_exact.
Check C16_timestampsdirect_listing_no_current.
Print Assumptions C16_timestampsdirect_listing_no_current.

Require Import FL.Flw.NumDCleanupStep FL.Flw.NumDCleanupRun FL.Flw.NumDCleanup FL.Flw.NumDCleanupNames.
(* NumbersDirect naming WITH a cleanup strategy (Flw/NumDCleanupNames.v): every file of every history - the numbered files and
   the archives r<i>.gz that the cleanup makes - is named as documented: after the stop, at every point, in every snapshot.
   not_gz c implies the side condition dside of the run theorems, so no side condition on the view appears *)
Theorem C16_numbersdirect_cleanup_names_documented c crit k t0 off ops :
  numdkcfg c crit k -> not_gz c -> Forall basic_op ops ->
  all_documented c (wfs (s_w (fst (run (sys0 t0 off) (OStart c :: ops ++ [OStop]))))).
Proof. exact (numbersdirect_cleanup_names_documented c crit k t0 off ops). Qed.

Theorem C16_numbersdirect_cleanup_names_documented_always c crit k t0 off ops :
  numdkcfg c crit k -> not_gz c -> Forall basic_op ops ->
  all_documented c (wfs (s_w (fst (run (sys0 t0 off) (OStart c :: ops))))).
Proof. exact (numbersdirect_cleanup_names_documented_always c crit k t0 off ops). Qed.

Theorem C16_numbersdirect_cleanup_snapshots_documented c crit k t0 off ops :
  numdkcfg c crit k -> not_gz c -> Forall basic_op ops ->
  Forall (snap_documented c) (snd (run (sys0 t0 off) (OStart c :: ops))).
Proof. exact (numbersdirect_cleanup_snapshots_documented c crit k t0 off ops). Qed.

(* ... and existing_log_files returns exactly the existing family files the selector asks for, archives included; there is no
   rCURRENT file in this naming: with_r_current and an admissible custom current infix select nothing *)
Theorem C16_numbersdirect_cleanup_listing_exact c crit k t0 off ops sel :
  numdkcfg c crit k -> not_gz c -> Forall basic_op ops -> custom_ok_d sel ->
  let x := fst (run (sys0 t0 off) (OStart c :: ops)) in
  exists l, step x (OQuery sel) = (x, ObsList 0%N l)
            /\ oracle_listing sel c (snap_of x) l = true
            /\ sort_names l = expected_listing sel c (snap_of x).
Proof. exact (numbersdirect_cleanup_listing_exact c crit k t0 off ops sel). Qed.

Theorem C16_numbersdirect_cleanup_listing_no_current c crit k t0 off ops sel :
  numdkcfg c crit k -> not_gz c -> Forall basic_op ops -> custom_ok_d sel ->
  let x := fst (run (sys0 t0 off) (OStart c :: ops)) in
  exists l, step x (OQuery sel) = (x, ObsList 0%N l) /\ step x (OQuery (no_current sel)) = (x, ObsList 0%N l)
            /\ (sel_plain sel = false -> sel_gz sel = false -> l = []).
Proof. exact (numbersdirect_cleanup_listing_no_current c crit k t0 off ops sel). Qed.

Check C16_numbersdirect_cleanup_names_documented.
Print Assumptions C16_numbersdirect_cleanup_names_documented.
Check C16_numbersdirect_cleanup_names_documented_always.
Print Assumptions C16_numbersdirect_cleanup_names_documented_always.
Check C16_numbersdirect_cleanup_snapshots_documented.
Print Assumptions C16_numbersdirect_cleanup_snapshots_documented.
Check C16_numbersdirect_cleanup_listing_exact.
Print Assumptions C16_numbersdirect_cleanup_listing_exact.
Check C16_numbersdirect_cleanup_listing_no_current.
Print Assumptions C16_numbersdirect_cleanup_listing_no_current.
(* non-vacuity: NumDCleanupNames.numbersdirect_cleanup_names_documented_instance, listing_instance_computed_dk (two archives, a
   closed plain file and the file being written), listing_instance_dk; the hypotheses are needed: custom_number_infix_listed_dk,
   gz_suffix_not_documented_dk *)
Check listing_instance_computed_dk.
Check gz_suffix_not_documented_dk.
