(* C08 - size criterion.  Statements only; proofs are in Flw/NumTheorems.v. *)
Require Import FL.Base.Bytes FL.Fs.Fs FL.Names.FileSpec FL.Flw.Model FL.Flw.Run FL.Flw.NumInv FL.Flw.NumRun
  FL.Oracles.O_Flw FL.Oracles.OracleFacts FL.Flw.NumTheorems.

(* Every write (record or raw chunk) of every history over writes, flushes, triggers and clock ticks, for every
   size limit m, buffer capacity and append setting, rotates exactly when the bytes already counted for the
   current file - on disk plus still buffered, as tracked by the reader's view s_run - exceed m. *)
Theorem C08_rotates_iff_exceeds :
  forall c m t0 off ops i o b,
    numcfg c (CSize m) -> Forall basic_op ops -> nth_error ops i = Some o -> (o = OWrite b \/ o = OPlain b) ->
    nth_error (snd (run (sys0 t0 off) (OStart c :: ops))) (S i)
    = Some (ObsRes 0 (m <? N.of_nat (length (cur_of (s_run m None (firstn i ops)))))%N).
Proof. exact numbers_rotates_iff. Qed.

(* Consequently the files found after the writer is stopped are exactly the greedy partition of the written
   records (the executable oracle's expected_files): no record is appended to a file that already exceeds m,
   a closed file exceeds m only by its last record, no file is closed early. *)
Theorem C08_partition_numbers :
  forall c m t0 off ops,
    numcfg c (CSize m) -> Forall basic_op ops ->
    reads c (wfs (s_w (fst (run (sys0 t0 off) (OStart c :: ops ++ [OStop]))))) (expected_files m None (items false ops)).
Proof. exact numbers_partition. Qed.

(* the oracle applied to what the theorem promises is true (the oracle is the comparison with expected_files) *)
Theorem C08_oracle_sound :
  forall m start its files, oracle_C08 m start its files = true -> files = expected_files m start its.
Proof. intros m start its files. apply list_beq_eq. Qed.

(* non-vacuity: a concrete configuration and history satisfy the hypotheses, and rotate *)
Definition ex_cfg : config :=
  {| c_spec := {| fbase := [97%N]; fdisc := None; fts := false; fsfx := Some [108%N; 111%N; 103%N] |};
     c_append := false; c_cap := Some 4; c_rot := Some (CSize 3%N, NNumbers, KNever); c_utc := false;
     c_symlink := false; c_bg := false; c_async := false; c_start := None |}.
Example C08_nonvacuous :
  numcfg ex_cfg (CSize 3%N) /\
  expected_files 3%N None (items false [OWrite [1;2;3;10]; OWrite [4;10]; OTrigger; OPlain [5]])%N
  = [[1;2;3;10]; [4;10]; [5]]%N.
Proof. split; [repeat split | vm_compute; reflexivity]. Qed.

Require Import FL.Flw.NumDInv FL.Flw.NumDRun FL.Flw.NumDTheorems.
(* NumbersDirect naming: the same greedy partition *)
Theorem C08_partition_numbersdirect c m t0 off ops :
  numdcfg c (CSize m) -> Forall basic_op ops ->
  direct_view c (wfs (s_w (fst (run (sys0 t0 off) (OStart c :: ops ++ [OStop]))))) (expected_files m None (items false ops)).
Proof. exact (numbersdirect_partition c m t0 off ops). Qed.

(* NumbersDirect naming: a write rotates exactly when the current file already exceeds the limit *)
Theorem C08_rotates_iff_numbersdirect c m t0 off ops i o b :
  numdcfg c (CSize m) -> Forall basic_op ops -> nth_error ops i = Some o -> (o = OWrite b \/ o = OPlain b) ->
  nth_error (snd (run (sys0 t0 off) (OStart c :: ops))) (S i)
  = Some (ObsRes 0 (m <? N.of_nat (length (cur_of (s_run m None (firstn i ops)))))%N).
Proof. exact (numbersdirect_rotates_iff c m t0 off ops i o b). Qed.

Require Import FL.Flw.TsTime FL.Flw.TsNames FL.Flw.TsInv FL.Flw.TsRun FL.Flw.TsTheorems FL.Flw.TsdInv FL.Flw.TsdRun FL.Flw.TsdTheorems.
(* TimestampsDirect naming: the same greedy partition *)
Theorem C08_partition_timestampsdirect c m t0 off ops :
  tsdcfg c (CSize m) -> tag_ok c -> Forall basic_op ops -> Forall tick_ok ops ->
  (0 <= t0 + ts_e c off)%Z -> (t0 + elapsed ops + ts_e c off < sec_max)%Z -> (N.of_nat (length ops) <= usize_max)%N ->
  exists keys,
    tsd_view c (ts_e c off) (wfs (s_w (fst (run (sys0 t0 off) (OStart c :: ops ++ [OStop]))))) keys
             (expected_files m None (items false ops))
    /\ keys_ok keys /\ (forall k, In k keys -> (t0 <= fst k <= t0 + elapsed ops)%Z).
Proof. exact (timestampsdirect_partition c m t0 off ops). Qed.

(* TimestampsDirect naming: a write rotates exactly when the current file already exceeds the limit *)
Theorem C08_rotates_iff_timestampsdirect c m t0 off ops i o b :
  tsdcfg c (CSize m) -> tag_ok c -> Forall basic_op ops -> Forall tick_ok ops ->
  (0 <= t0 + ts_e c off)%Z -> (t0 + elapsed ops + ts_e c off < sec_max)%Z -> (N.of_nat (length ops) <= usize_max)%N ->
  nth_error ops i = Some o -> (o = OWrite b \/ o = OPlain b) ->
  nth_error (snd (run (sys0 t0 off) (OStart c :: ops))) (S i)
  = Some (ObsRes 0 (m <? N.of_nat (length (cur_of (s_run m None (firstn i ops)))))%N).
Proof. exact (timestampsdirect_rotates_iff c m t0 off ops i o b). Qed.

Check C08_rotates_iff_exceeds.
Check C08_partition_numbers.
Print Assumptions C08_rotates_iff_exceeds.
Print Assumptions C08_partition_numbers.
Print Assumptions C08_oracle_sound.
Check C08_partition_numbersdirect.
Print Assumptions C08_partition_numbersdirect.
Check C08_rotates_iff_numbersdirect.
Print Assumptions C08_rotates_iff_numbersdirect.
Check C08_partition_timestampsdirect.
Print Assumptions C08_partition_timestampsdirect.
Check C08_rotates_iff_timestampsdirect.
Print Assumptions C08_rotates_iff_timestampsdirect.

Require Import FL.Oracles.ReaderOrder FL.Flw.NumRestart FL.Flw.NumDTheorems FL.Flw.TsReader FL.Flw.TsPartition.
(* Timestamps naming (rCURRENT + r<time stamp>[.restart-NNNN]): the same greedy partition; the closed files - named by their
   keys, in the order of their closing - hold all lists of the partition but the last, rCURRENT holds the last one; no record:
   empty directory *)
Theorem C08_partition_timestamps c m t0 off ops :
  tscfg c (CSize m) -> tag_ok c -> Forall basic_op ops -> Forall tick_ok ops ->
  (0 <= t0 + ts_e c off)%Z -> (t0 + elapsed ops + ts_e c off < sec_max)%Z -> (N.of_nat (length ops) <= usize_max)%N ->
  let f := wfs (s_w (fst (run (sys0 t0 off) (OStart c :: ops ++ [OStop])))) in
  let files := expected_files m None (items false ops) in
  (has_write ops = false /\ files = [] /\ names f = [])
  \/ exists keys closed cur,
       has_write ops = true
       /\ files = closed ++ [cur]
       /\ ts_view c (ts_e c off) f keys closed cur
       /\ keys_ok keys
       /\ (forall k, In k keys -> (t0 <= fst k <= t0 + elapsed ops)%Z).
Proof. exact (timestamps_partition c m t0 off ops). Qed.

(* Timestamps naming: a write rotates exactly when the current file already exceeds the limit *)
Theorem C08_rotates_iff_timestamps c m t0 off ops i o b :
  tscfg c (CSize m) -> tag_ok c -> Forall basic_op ops -> Forall tick_ok ops ->
  (0 <= t0 + ts_e c off)%Z -> (t0 + elapsed ops + ts_e c off < sec_max)%Z -> (N.of_nat (length ops) <= usize_max)%N ->
  nth_error ops i = Some o -> (o = OWrite b \/ o = OPlain b) ->
  nth_error (snd (run (sys0 t0 off) (OStart c :: ops))) (S i)
  = Some (ObsRes 0 (m <? N.of_nat (length (cur_of (s_run m None (firstn i ops)))))%N).
Proof. exact (timestamps_rotates_iff c m t0 off ops i o b). Qed.

(* Timestamps naming: the executable oracle accepts the reader's view of the final directory *)
Theorem C08_oracle_timestamps c m t0 off ops :
  tscfg c (CSize m) -> tag_ok c -> not_gz c -> Forall basic_op ops -> Forall tick_ok ops ->
  (0 <= t0 + ts_e c off)%Z -> (t0 + elapsed ops + ts_e c off < sec_max)%Z -> (N.of_nat (length ops) <= usize_max)%N ->
  oracle_C08 m None (items false ops) (family_in_order c (snap_of (fst (run (sys0 t0 off) (OStart c :: ops ++ [OStop]))))) = true.
Proof. exact (timestamps_oracle_C08 c m t0 off ops). Qed.

Check C08_partition_timestamps.
Print Assumptions C08_partition_timestamps.
Check C08_rotates_iff_timestamps.
Print Assumptions C08_rotates_iff_timestamps.
Check C08_oracle_timestamps.
Print Assumptions C08_oracle_timestamps.

(* ------------------------------------------------------------------ start states: append onto content found (proofs: Flw/NumAppendPartition.v,
   Flw/NumDAppendPartition.v).  The content found in the current file counts for the limit from the first write on. *)
Require Import FL.Flw.NumRestart FL.Flw.NumAppendPartition FL.Flw.NumDRestart FL.Flw.NumDAppendPartition.
Local Open Scope nat_scope.
(* two runs, the second with append: its files are the greedy partition that STARTS with what run 1 left in rCURRENT *)
Theorem C08_append_partition_numbers c1 c2 m1 m2 t0 off ops1 ops2 closed1 cur1 :
  numcfg c1 (CSize m1) -> numcfg c2 (CSize m2) -> c_spec c1 = c_spec c2 -> c_append c2 = true ->
  Forall basic_op ops1 -> Forall basic_op ops2 ->
  expected_files m1 None (items false ops1) = closed1 ++ [cur1] -> (N.of_nat (length closed1) <= u32_max)%N ->
  reads c2 (wfs (s_w (fst (run (sys0 t0 off) (OStart c1 :: ops1 ++ [OStop] ++ OStart c2 :: ops2 ++ [OStop])))))
        (closed1 ++ expected_files m2 (Some cur1) (items false ops2)).
Proof. exact (numbers_append_partition c1 c2 m1 m2 t0 off ops1 ops2 closed1 cur1). Qed.

(* ... and each write of run 2 rotates iff what is counted - found content included - exceeds the limit (a trigger or flush before
   the run's first write does nothing: the file is opened lazily, so the prefix is taken from the first write on) *)
Theorem C08_append_rotates_iff_numbers c1 c2 m1 m2 t0 off ops1 ops2 closed1 cur1 i o b :
  numcfg c1 (CSize m1) -> numcfg c2 (CSize m2) -> c_spec c1 = c_spec c2 -> c_append c2 = true ->
  Forall basic_op ops1 -> Forall basic_op ops2 ->
  expected_files m1 None (items false ops1) = closed1 ++ [cur1] -> (N.of_nat (length closed1) <= u32_max)%N ->
  nth_error ops2 i = Some o -> (o = OWrite b \/ o = OPlain b) ->
  nth_error (snd (run (fst (run (sys0 t0 off) (OStart c1 :: ops1 ++ [OStop]))) (OStart c2 :: ops2))) (S i)
  = Some (ObsRes 0 (m2 <? N.of_nat (length (cur_of (s_run m2 (Some ([], cur1)) (from_first_write (firstn i ops2))))))%N).
Proof. exact (numbers_append_rotates_iff c1 c2 m1 m2 t0 off ops1 ops2 closed1 cur1 i o b). Qed.

(* any number of runs, each with its own limit, capacity and append flag: the files are the fold of the greedy partition over
   the runs (runs_files: with append the last file found is continued and counts, without append a new file is started) *)
Theorem C08_runs_partition_numbers sp t0 off rs :
  (N.of_nat (length (runs_ops rs)) <= u32_max)%N ->
  Forall (fun r => c_spec (fst r) = sp /\ (exists m, numcfg (fst r) (CSize m)) /\ Forall basic_op (snd r)) rs ->
  forall c, c_spec c = sp -> reads c (wfs (s_w (fst (run (sys0 t0 off) (runs_ops rs))))) (runs_files [] rs).
Proof. exact (numbers_runs_partition sp t0 off rs). Qed.

Theorem C08_runs_partition_numbersdirect sp t0 off rs :
  (N.of_nat (length (runs_ops rs)) <= u32_max)%N ->
  Forall (fun r => c_spec (fst r) = sp /\ (exists m, numdcfg (fst r) (CSize m)) /\ Forall basic_op (snd r)) rs ->
  forall c, c_spec c = sp ->
    direct_view c (wfs (s_w (fst (run (sys0 t0 off) (runs_ops rs))))) (runs_files [] rs).
Proof. exact (numbersdirect_runs_partition sp t0 off rs). Qed.

Check C08_append_partition_numbers. Check C08_append_rotates_iff_numbers. Check C08_runs_partition_numbers. Check C08_runs_partition_numbersdirect.
Print Assumptions C08_append_partition_numbers.
Print Assumptions C08_append_rotates_iff_numbers.
Print Assumptions C08_runs_partition_numbers.
Print Assumptions C08_runs_partition_numbersdirect.

(* ------------------------------------------------------------------ start states for TimestampsDirect naming (proofs: Flw/TsdAppendPartition.v).
   The histories are those of TsRestart.v / TsdRestart.v: before each run the clock advances by dt >= 0 (run_t, runs_ops_t);
   with append the newest file found - by time stamp and restart counter - is continued under its old name and its content
   counts for the limit from the first write on *)
Require Import FL.Flw.TsRestart FL.Flw.TsdRestartInv FL.Flw.TsdRestart FL.Flw.TsdAppendPartition.
Theorem C08_append_partition_timestampsdirect c1 c2 m1 m2 t0 off dt ops1 ops2 closed1 cur1 :
  tsdcfg c1 (CSize m1) -> tsdcfg c2 (CSize m2) -> tag_ok c1 -> tag_ok c2 -> c_spec c1 = c_spec c2 -> c_utc c1 = c_utc c2 ->
  (c_append c1 = true -> probe_ok c1) -> c_append c2 = true -> probe_ok c2 -> (0 <= dt)%Z ->
  Forall basic_op ops1 -> Forall tick_ok ops1 -> Forall basic_op ops2 -> Forall tick_ok ops2 ->
  expected_files m1 None (items false ops1) = closed1 ++ [cur1] ->
  let rs := [(0%Z, c1, ops1); (dt, c2, ops2)] in
  let e := ts_e c2 off in
  (0 <= t0 + e)%Z -> (t0 + elapsed (runs_ops_t rs) + e < sec_max)%Z -> (N.of_nat (length (runs_ops_t rs)) <= usize_max)%N ->
  exists keys,
    tsd_view c2 e (wfs (s_w (fst (run (sys0 t0 off) (runs_ops_t rs))))) keys
             (closed1 ++ expected_files m2 (Some cur1) (items false ops2))
    /\ keys_ok keys /\ (forall k, In k keys -> (t0 <= fst k <= t0 + elapsed (runs_ops_t rs))%Z).
Proof. exact (timestampsdirect_append_partition c1 c2 m1 m2 t0 off dt ops1 ops2 closed1 cur1). Qed.

Theorem C08_append_rotates_iff_timestampsdirect c1 c2 m1 m2 t0 off dt ops1 ops2 closed1 cur1 i o b :
  tsdcfg c1 (CSize m1) -> tsdcfg c2 (CSize m2) -> tag_ok c1 -> tag_ok c2 -> c_spec c1 = c_spec c2 -> c_utc c1 = c_utc c2 ->
  (c_append c1 = true -> probe_ok c1) -> c_append c2 = true -> probe_ok c2 -> (0 <= dt)%Z ->
  Forall basic_op ops1 -> Forall tick_ok ops1 -> Forall basic_op ops2 -> Forall tick_ok ops2 ->
  expected_files m1 None (items false ops1) = closed1 ++ [cur1] ->
  let rs := [(0%Z, c1, ops1); (dt, c2, ops2)] in
  let e := ts_e c2 off in
  (0 <= t0 + e)%Z -> (t0 + elapsed (runs_ops_t rs) + e < sec_max)%Z -> (N.of_nat (length (runs_ops_t rs)) <= usize_max)%N ->
  nth_error ops2 i = Some o -> (o = OWrite b \/ o = OPlain b) ->
  nth_error (snd (run (fst (run (sys0 t0 off) (runs_ops_t [(0%Z, c1, ops1)]))) (OTick dt :: OStart c2 :: ops2))) (S (S i))
  = Some (ObsRes 0 (m2 <? N.of_nat (length (cur_of (s_run m2 (Some ([], cur1)) (from_first_write (firstn i ops2))))))%N).
Proof. exact (timestampsdirect_append_rotates_iff c1 c2 m1 m2 t0 off dt ops1 ops2 closed1 cur1 i o b). Qed.

Theorem C08_runs_partition_timestampsdirect sp utc t0 off rs :
  Forall (run_ok_tsd sp utc) rs -> Forall size_run_tsd rs ->
  let e := if utc then 0%Z else off in
  (0 <= t0 + e)%Z -> (t0 + elapsed (runs_ops_t rs) + e < sec_max)%Z -> (N.of_nat (length (runs_ops_t rs)) <= usize_max)%N ->
  let f := wfs (s_w (fst (run (sys0 t0 off) (runs_ops_t rs)))) in
  exists keys,
    (forall c, c_spec c = sp -> tsd_view c e f keys (runs_files [] (strip rs)))
    /\ keys_ok keys
    /\ (forall k, In k keys -> (t0 <= fst k <= t0 + elapsed (runs_ops_t rs))%Z).
Proof. exact (timestampsdirect_runs_partition sp utc t0 off rs). Qed.

Theorem C08_runs_rotates_iff_timestampsdirect sp utc t0 off rs dt c m ops i o b :
  Forall (run_ok_tsd sp utc) (rs ++ [(dt, c, ops)]) -> Forall size_run_tsd rs -> tsdcfg c (CSize m) ->
  let e := if utc then 0%Z else off in
  (0 <= t0 + e)%Z -> (t0 + elapsed (runs_ops_t (rs ++ [(dt, c, ops)])) + e < sec_max)%Z ->
  (N.of_nat (length (runs_ops_t (rs ++ [(dt, c, ops)]))) <= usize_max)%N ->
  nth_error ops i = Some o -> (o = OWrite b \/ o = OPlain b) ->
  nth_error (snd (run (fst (run (sys0 t0 off) (runs_ops_t rs))) (OTick dt :: OStart c :: ops))) (S (S i))
  = Some (ObsRes 0 (m <? N.of_nat (length (cur_before m (start_of (runs_files [] (strip rs)) (c_append c)) (firstn i ops))))%N).
Proof. exact (timestampsdirect_runs_rotates_iff sp utc t0 off rs dt c m ops i o b). Qed.

Check C08_append_partition_timestampsdirect. Check C08_append_rotates_iff_timestampsdirect.
Check C08_runs_partition_timestampsdirect. Check C08_runs_rotates_iff_timestampsdirect.
Print Assumptions C08_append_partition_timestampsdirect.
Print Assumptions C08_append_rotates_iff_timestampsdirect.
Print Assumptions C08_runs_partition_timestampsdirect.
Print Assumptions C08_runs_rotates_iff_timestampsdirect.

(* ------------------------------------------------------------------ start states for Timestamps naming (proofs: Flw/TsAppendPartition.v):
   with append rCURRENT is continued and its content counts; without append it is closed at the first write of the new run
   under the stamp of its start; a run that never writes changes nothing *)
Require Import FL.Flw.TsAppendPartition.
Theorem C08_append_partition_timestamps sp utc t0 off dt1 c1 m1 ops1 dt2 c2 m2 ops2 closed1 cur1 :
  run_ok_ts sp utc (dt1, c1, ops1) -> run_ok_ts sp utc (dt2, c2, ops2) ->
  tscfg c1 (CSize m1) -> tscfg c2 (CSize m2) -> c_append c2 = true ->
  expected_files m1 None (items false ops1) = closed1 ++ [cur1] ->
  let rs := TsAppendPartition.two_runs dt1 c1 ops1 dt2 c2 ops2 in
  let e := if utc then 0%Z else off in
  (0 <= t0 + e)%Z -> (t0 + elapsed (runs_ops_t rs) + e < sec_max)%Z -> (N.of_nat (length (runs_ops_t rs)) <= usize_max)%N ->
  let f := wfs (s_w (fst (run (sys0 t0 off) (runs_ops_t rs)))) in
  exists keys closed cur,
    closed1 ++ expected_files m2 (Some cur1) (items false ops2) = closed ++ [cur]
    /\ (forall c, c_spec c = sp -> ts_view c e f keys closed cur)
    /\ keys_ok keys
    /\ (forall k, In k keys -> (t0 <= fst k <= t0 + elapsed (runs_ops_t rs))%Z).
Proof. exact (timestamps_append_partition sp utc t0 off dt1 c1 m1 ops1 dt2 c2 m2 ops2 closed1 cur1). Qed.

Theorem C08_append_rotates_iff_timestamps sp utc t0 off dt1 c1 m1 ops1 dt2 c2 m2 ops2 closed1 cur1 i o b :
  run_ok_ts sp utc (dt1, c1, ops1) -> run_ok_ts sp utc (dt2, c2, ops2) ->
  tscfg c1 (CSize m1) -> tscfg c2 (CSize m2) -> c_append c2 = true ->
  expected_files m1 None (items false ops1) = closed1 ++ [cur1] ->
  let e := if utc then 0%Z else off in
  (0 <= t0 + e)%Z -> (t0 + elapsed (run_t dt1 c1 ops1) + dt2 + elapsed ops2 + e < sec_max)%Z ->
  (N.of_nat (length (run_t dt1 c1 ops1) + S (length ops2)) <= usize_max)%N ->
  nth_error ops2 i = Some o -> (o = OWrite b \/ o = OPlain b) ->
  nth_error (snd (run (fst (run (sys0 t0 off) (run_t dt1 c1 ops1))) (OTick dt2 :: OStart c2 :: ops2))) (S (S i))
  = Some (ObsRes 0 (m2 <? N.of_nat (length (cur_of (s_run m2 (Some ([], cur1)) (from_first_write (firstn i ops2))))))%N).
Proof. exact (timestamps_append_rotates_iff sp utc t0 off dt1 c1 m1 ops1 dt2 c2 m2 ops2 closed1 cur1 i o b). Qed.

Theorem C08_runs_partition_timestamps sp utc t0 off rs :
  Forall (run_ok_ts sp utc) rs -> Forall (fun r => exists m, tscfg (snd (fst r)) (CSize m)) rs ->
  let e := if utc then 0%Z else off in
  (0 <= t0 + e)%Z -> (t0 + elapsed (runs_ops_t rs) + e < sec_max)%Z -> (N.of_nat (length (runs_ops_t rs)) <= usize_max)%N ->
  let f := wfs (s_w (fst (run (sys0 t0 off) (runs_ops_t rs)))) in
  (runs_files [] (TsAppendPartition.strip rs) = [] /\ names f = [])
  \/ exists keys closed cur,
       runs_files [] (TsAppendPartition.strip rs) = closed ++ [cur]
       /\ (forall c, c_spec c = sp -> ts_view c e f keys closed cur)
       /\ keys_ok keys
       /\ (forall k, In k keys -> (t0 <= fst k <= t0 + elapsed (runs_ops_t rs))%Z).
Proof. exact (timestamps_runs_partition sp utc t0 off rs). Qed.

Theorem C08_runs_rotates_iff_timestamps sp utc t0 off rs dt c m ops i o b :
  Forall (run_ok_ts sp utc) rs -> Forall (fun r => exists m, tscfg (snd (fst r)) (CSize m)) rs ->
  run_ok_ts sp utc (dt, c, ops) -> tscfg c (CSize m) ->
  let e := if utc then 0%Z else off in
  (0 <= t0 + e)%Z -> (t0 + elapsed (runs_ops_t rs) + dt + elapsed ops + e < sec_max)%Z ->
  (N.of_nat (length (runs_ops_t rs) + S (length ops)) <= usize_max)%N ->
  nth_error ops i = Some o -> (o = OWrite b \/ o = OPlain b) ->
  nth_error (snd (run (fst (run (sys0 t0 off) (runs_ops_t rs))) (OTick dt :: OStart c :: ops))) (S (S i))
  = Some (ObsRes 0 (m <? N.of_nat (length (cur_before m (start_of (runs_files [] (TsAppendPartition.strip rs)) (c_append c)) (firstn i ops))))%N).
Proof. exact (timestamps_runs_rotates_iff sp utc t0 off rs dt c m ops i o b). Qed.

Check C08_append_partition_timestamps. Check C08_append_rotates_iff_timestamps.
Check C08_runs_partition_timestamps. Check C08_runs_rotates_iff_timestamps.
Print Assumptions C08_append_partition_timestamps.
Print Assumptions C08_append_rotates_iff_timestamps.
Print Assumptions C08_runs_partition_timestamps.
Print Assumptions C08_runs_rotates_iff_timestamps.
