(* C14 - foreign files.  Statements only. *)
Require Import FL.Base.Bytes FL.Base.BytesFacts FL.Base.PathName FL.Fs.Fs FL.Names.FileSpec FL.Names.SortFacts FL.Flw.Model FL.Oracles.ReaderOrder FL.Names.FamilyFacts.

(* whatever the oracles treat as a member of the family has the documented shape
   fixed [_ infix] [.suffix] [.gz] *)
Theorem C14_family_name_shape :
  forall sp fixed name infix, full_infix sp fixed name = Some infix ->
    exists gz body,
      (gz = [] \/ gz = dot :: gz_sfx)
      /\ name = body ++ (match fsfx sp with Some s => dot :: s | None => [] end) ++ gz
      /\ ((body = fixed /\ infix = []) \/ (fixed = [] /\ body = infix) \/ body = fixed ++ [uscore] ++ infix).
Proof. exact full_infix_shape. Qed.

(* the model's listing only ever returns entries of the directory that start with the fixed name part *)
Theorem C14_listing_prefix :
  forall off sp fixed f flt sel l n, existing_rot off sp fixed f flt sel = Some l -> In n l ->
    is_prefix fixed n = true /\ is_reg_file f n = true.
Proof.
  intros off sp fixed f flt sel l n H I. apply (existing_rot_related _ _ _ _ _ _ _ _ H), In_related_files in I. tauto.
Qed.

(* the family test of the listing against the documented pattern fixed [_] infix [.restart-NNNN] [.suffix]:
   what it accepts (with a non-empty infix) has that shape, everything of that shape is accepted *)
Theorem C14_listing_accepts_family_only : forall sp fixed name infix,
  infix <> [] -> infix_candidate (fsfx sp) (fsfx sp) fixed name = Some infix -> family_plain sp fixed name infix.
Proof. exact candidate_is_family. Qed.
Theorem C14_listing_accepts_all_family : forall sp fixed name infix,
  family_plain sp fixed name infix -> infix_candidate (fsfx sp) (fsfx sp) fixed name = Some infix.
Proof. exact family_is_candidate. Qed.

(* noninterference at the listing: a directory entry that the family test rejects can be added or removed without
   changing what filter_files returns - so numbering, collision handling and cleanup, which all work on these
   lists, do not see it *)
Theorem C14_foreign_ignored : forall off sp fixed files flt sfx n,
  infix_candidate (fsfx sp) sfx fixed n = None ->
  forall l1 l2, files = l1 ++ n :: l2 ->
    filter_files off (fsfx sp) fixed files flt sfx = filter_files off (fsfx sp) fixed (l1 ++ l2) flt sfx.
Proof. exact foreign_ignored. Qed.

Require Import FL.Flw.Run FL.Flw.NumInv FL.Flw.NumRun FL.Flw.NumTheorems FL.Flw.NumCleanupNames FL.Flw.NumCleanupStep FL.Flw.NumCleanupRun FL.Flw.NumCleanup FL.Flw.ForeignFs FL.Flw.ForeignSort FL.Flw.ForeignModel FL.Flw.NumForeign FL.Flw.NumCleanupForeign FL.Oracles.O_Flw.

Lemma sort_names_in l y : In y (sort_names l) <-> In y l.
Proof. exact (sort_names_in_iff l y). Qed.

(* END TO END non-interference, Numbers naming, EVERY history of a run: with arbitrary foreign files in the directory (names that the
   family test rejects: num_member c n = false - this covers near misses like a_r00001.log.bak, a_rx.log, ax_r00001.log, and, since
   the repair of the number filter, a_r1x.log, a_r1backup.log, a_r00001x.log, a_r2024-02-29_23-59-58.log: num_member accepts exactly
   the names of the pattern <fixed>_r<digits>[.restart-NNNN][.suffix][.gz] and the rCURRENT file, C14_num_member_pattern below) the
   logger's observations are those of the run in the empty directory (snapshots modulo the foreign entries), every foreign file is
   unchanged, and all other names and contents are exactly those of the run in the empty directory *)
Theorem C14_numbers_foreign_ignored c crit t0 off foreign ops :
  numcfg c crit -> Forall basic_op ops ->
  NoDup (List.map fst foreign) ->
  (forall n, In n (List.map fst foreign) -> num_member c n = false) ->
  let ops' := OStart c :: ops ++ [OStop] in
  let rf := run (sys0f t0 off foreign) ops' in
  let r0 := run (sys0 t0 off) ops' in
  (* 1: the same observations; a snapshot shows the foreign files in addition *)
  List.map (strip_obs (List.map fst foreign)) (snd rf) = snd r0
  /\ (Forall (fun o => o <> OSnap) ops -> snd rf = snd r0)
  (* 2: the foreign files are in place, unchanged *)
  /\ (forall n d, In (n, d) foreign -> file_of (wfs (s_w (fst rf))) n = Some (plain_file t0 d))
  (* 3: every other name is what the run in the empty directory makes of it *)
  /\ (forall n, ~ In n (List.map fst foreign) -> file_of (wfs (s_w (fst rf))) n = file_of (wfs (s_w (fst r0))) n)
  /\ (forall n, In n (List.map fst foreign) -> file_of (wfs (s_w (fst r0))) n = None)
  (* the whole state: the run is the embedding of the run in the empty directory *)
  /\ fst rf = embedx (names (fs0f t0 foreign)) (inodes (fs0f t0 foreign)) (fst r0).
Proof. exact (numbers_foreign_ignored c crit t0 off foreign ops). Qed.

(* ... so the stream theorem carries over *)
Theorem C14_numbers_stream_foreign c crit t0 off foreign ops :
  numcfg c crit -> Forall basic_op ops ->
  NoDup (List.map fst foreign) ->
  (forall n, In n (List.map fst foreign) -> num_member c n = false) ->
  exists files,
    reads_family c (List.map fst foreign)
      (wfs (s_w (fst (run (sys0f t0 off foreign) (OStart c :: ops ++ [OStop]))))) files
    /\ concat files = written ops.
Proof. exact (numbers_stream_foreign c crit t0 off foreign ops). Qed.

(* the same with a cleanup strategy: the cleanup neither removes nor compresses a foreign file *)
Theorem C14_numbers_cleanup_foreign_ignored c crit k t0 off foreign ops :
  numkcfg c crit k -> Forall basic_op ops ->
  kside c k (nclosed (a_run None ops (snd (run (fst (step (sys0 t0 off) (OStart c))) ops)))) ->
  NoDup (List.map fst foreign) ->
  (forall n, In n (List.map fst foreign) -> num_member c n = false) ->
  let ops' := OStart c :: ops ++ [OStop] in
  let rf := run (sys0f t0 off foreign) ops' in
  let r0 := run (sys0 t0 off) ops' in
  (* 1: the same observations; a snapshot shows the foreign files in addition *)
  List.map (strip_obs (List.map fst foreign)) (snd rf) = snd r0
  /\ (Forall (fun o => o <> OSnap) ops -> snd rf = snd r0)
  (* 2: the foreign files are in place, unchanged *)
  /\ (forall n d, In (n, d) foreign -> file_of (wfs (s_w (fst rf))) n = Some (plain_file t0 d))
  (* 3: every other name is what the run in the empty directory makes of it *)
  /\ (forall n, ~ In n (List.map fst foreign) -> file_of (wfs (s_w (fst rf))) n = file_of (wfs (s_w (fst r0))) n)
  /\ (forall n, In n (List.map fst foreign) -> file_of (wfs (s_w (fst r0))) n = None)
  (* the whole state: the run is the embedding of the run in the empty directory *)
  /\ fst rf = embedx (names (fs0f t0 foreign)) (inodes (fs0f t0 foreign)) (fst r0).
Proof. exact (numbers_cleanup_foreign_ignored c crit k t0 off foreign ops). Qed.

Check C14_family_name_shape. Check C14_listing_prefix.
Print Assumptions C14_family_name_shape.
Print Assumptions C14_listing_prefix.
Print Assumptions C14_listing_accepts_family_only.
Print Assumptions C14_listing_accepts_all_family.
Print Assumptions C14_foreign_ignored.
Check C14_numbers_foreign_ignored.
Print Assumptions C14_numbers_foreign_ignored.
Check C14_numbers_stream_foreign.
Print Assumptions C14_numbers_stream_foreign.
Check C14_numbers_cleanup_foreign_ignored.
Print Assumptions C14_numbers_cleanup_foreign_ignored.

(* ------------------------------------------------------------------ the other three namings *)
Require Import FL.Flw.NumDInv FL.Flw.NumDForeign FL.Time.Civil FL.Flw.TsTime FL.Flw.TsNames FL.Flw.TsInv FL.Flw.TsRun FL.Flw.TsTheorems
  FL.Flw.TsdInv FL.Flw.TsForeignFacts FL.Flw.TsdForeign FL.Flw.TsForeign.

(* NumbersDirect naming: foreign = the number filter rejects the name, as a plain file and as an archive (the rCURRENT file
   of Numbers naming is foreign here) *)
Theorem C14_numbersdirect_foreign_ignored c crit t0 off foreign ops :
  numdcfg c crit -> Forall basic_op ops ->
  NoDup (List.map fst foreign) ->
  (forall n, In n (List.map fst foreign) -> numd_member c n = false) ->
  let ops' := OStart c :: ops ++ [OStop] in
  let rf := run (sys0f t0 off foreign) ops' in
  let r0 := run (sys0 t0 off) ops' in
  List.map (strip_obs (List.map fst foreign)) (snd rf) = snd r0
  /\ (Forall (fun o => o <> OSnap) ops -> snd rf = snd r0)
  /\ (forall n d, In (n, d) foreign -> file_of (wfs (s_w (fst rf))) n = Some (plain_file t0 d))
  /\ (forall n, ~ In n (List.map fst foreign) -> file_of (wfs (s_w (fst rf))) n = file_of (wfs (s_w (fst r0))) n)
  /\ (forall n, In n (List.map fst foreign) -> file_of (wfs (s_w (fst r0))) n = None)
  /\ fst rf = embedx (names (fs0f t0 foreign)) (inodes (fs0f t0 foreign)) (fst r0).
Proof. exact (numbersdirect_foreign_ignored c crit t0 off foreign ops). Qed.

Theorem C14_numbersdirect_stream_foreign c crit t0 off foreign ops :
  numdcfg c crit -> Forall basic_op ops ->
  NoDup (List.map fst foreign) ->
  (forall n, In n (List.map fst foreign) -> numd_member c n = false) ->
  exists files,
    direct_view_family c (List.map fst foreign)
      (wfs (s_w (fst (run (sys0f t0 off foreign) (OStart c :: ops ++ [OStop]))))) files
    /\ concat files = written ops.
Proof. exact (numbersdirect_stream_foreign c crit t0 off foreign ops). Qed.

(* TimestampsDirect naming: foreign = tsd_member rejects the name: no infix is extracted from it, or one that the time-stamp
   filter does not accept - as a plain file, as an archive, and with ".gz" removed.  (Before the repair of
   latest_timestamp_file the test had to accept what the number filter accepted, too; now a file with a number infix -
   a_r00001.log, a_r1x.log - is foreign for the time-stamp namings: C14_number_files_foreign_ts below.) *)
Theorem C14_timestampsdirect_foreign_ignored c crit t0 off foreign ops :
  tsdcfg c crit -> tag_ok c -> Forall basic_op ops -> Forall tick_ok ops ->
  (0 <= t0 + ts_e c off)%Z -> (t0 + elapsed ops + ts_e c off < sec_max)%Z -> (N.of_nat (length ops) <= usize_max)%N ->
  NoDup (List.map fst foreign) ->
  (forall n, In n (List.map fst foreign) -> tsd_member c n = false) ->
  let ops' := OStart c :: ops ++ [OStop] in
  let rf := run (sys0f t0 off foreign) ops' in
  let r0 := run (sys0 t0 off) ops' in
  List.map (strip_obs (List.map fst foreign)) (snd rf) = snd r0
  /\ (Forall (fun o => o <> OSnap) ops -> snd rf = snd r0)
  /\ (forall n d, In (n, d) foreign -> file_of (wfs (s_w (fst rf))) n = Some (plain_file t0 d))
  /\ (forall n, ~ In n (List.map fst foreign) -> file_of (wfs (s_w (fst rf))) n = file_of (wfs (s_w (fst r0))) n)
  /\ (forall n, In n (List.map fst foreign) -> file_of (wfs (s_w (fst r0))) n = None)
  /\ fst rf = embedx (names (fs0f t0 foreign)) (inodes (fs0f t0 foreign)) (fst r0).
Proof. exact (timestampsdirect_foreign_ignored c crit t0 off foreign ops). Qed.

Theorem C14_timestampsdirect_stream_foreign c crit t0 off foreign ops :
  tsdcfg c crit -> tag_ok c -> Forall basic_op ops -> Forall tick_ok ops ->
  (0 <= t0 + ts_e c off)%Z -> (t0 + elapsed ops + ts_e c off < sec_max)%Z -> (N.of_nat (length ops) <= usize_max)%N ->
  NoDup (List.map fst foreign) ->
  (forall n, In n (List.map fst foreign) -> tsd_member c n = false) ->
  exists keys files,
    tsd_view_family c (ts_e c off) (List.map fst foreign)
      (wfs (s_w (fst (run (sys0f t0 off foreign) (OStart c :: ops ++ [OStop]))))) keys files
    /\ concat files = written ops /\ keys_ok keys
    /\ (forall k, In k keys -> (t0 <= fst k <= t0 + elapsed ops)%Z).
Proof. exact (timestampsdirect_stream_foreign c crit t0 off foreign ops). Qed.

(* Timestamps naming: foreign = ts_member rejects the name: as before, and it is not the rCURRENT file *)
Theorem C14_timestamps_foreign_ignored c crit t0 off foreign ops :
  tscfg c crit -> tag_ok c -> Forall basic_op ops -> Forall tick_ok ops ->
  (0 <= t0 + ts_e c off)%Z -> (t0 + elapsed ops + ts_e c off < sec_max)%Z -> (N.of_nat (length ops) <= usize_max)%N ->
  NoDup (List.map fst foreign) ->
  (forall n, In n (List.map fst foreign) -> ts_member c n = false) ->
  let ops' := OStart c :: ops ++ [OStop] in
  let rf := run (sys0f t0 off foreign) ops' in
  let r0 := run (sys0 t0 off) ops' in
  List.map (strip_obs (List.map fst foreign)) (snd rf) = snd r0
  /\ (Forall (fun o => o <> OSnap) ops -> snd rf = snd r0)
  /\ (forall n d, In (n, d) foreign -> file_of (wfs (s_w (fst rf))) n = Some (plain_file t0 d))
  /\ (forall n, ~ In n (List.map fst foreign) -> file_of (wfs (s_w (fst rf))) n = file_of (wfs (s_w (fst r0))) n)
  /\ (forall n, In n (List.map fst foreign) -> file_of (wfs (s_w (fst r0))) n = None)
  /\ fst rf = embedx (names (fs0f t0 foreign)) (inodes (fs0f t0 foreign)) (fst r0).
Proof. exact (timestamps_foreign_ignored c crit t0 off foreign ops). Qed.

Theorem C14_timestamps_stream_foreign c crit t0 off foreign ops :
  tscfg c crit -> tag_ok c -> Forall basic_op ops -> Forall tick_ok ops ->
  (0 <= t0 + ts_e c off)%Z -> (t0 + elapsed ops + ts_e c off < sec_max)%Z -> (N.of_nat (length ops) <= usize_max)%N ->
  NoDup (List.map fst foreign) ->
  (forall n, In n (List.map fst foreign) -> ts_member c n = false) ->
  let f := wfs (s_w (fst (run (sys0f t0 off foreign) (OStart c :: ops ++ [OStop])))) in
  ((forall n, ~ In n (List.map fst foreign) -> file_of f n = None) /\ written ops = [])
  \/ exists keys closed cur,
       ts_view_family c (ts_e c off) (List.map fst foreign) f keys closed cur
       /\ concat closed ++ cur = written ops
       /\ keys_ok keys
       /\ (forall k, In k keys -> (t0 <= fst k <= t0 + elapsed ops)%Z).
Proof. exact (timestamps_stream_foreign c crit t0 off foreign ops). Qed.

(* which names are foreign with the time-stamp namings: every member has the shape <fixed>_r... *)
Theorem C14_ts_member_shape c n : ts_member c n = true -> exists y, n = under (fixed0 c) ++ r_char :: y.
Proof. exact (ts_member_shape c n). Qed.

Check C14_numbersdirect_foreign_ignored.
Print Assumptions C14_numbersdirect_foreign_ignored.
Check C14_numbersdirect_stream_foreign.
Print Assumptions C14_numbersdirect_stream_foreign.
Check C14_timestampsdirect_foreign_ignored.
Print Assumptions C14_timestampsdirect_foreign_ignored.
Check C14_timestampsdirect_stream_foreign.
Print Assumptions C14_timestampsdirect_stream_foreign.
Check C14_timestamps_foreign_ignored.
Print Assumptions C14_timestamps_foreign_ignored.
Check C14_timestamps_stream_foreign.
Print Assumptions C14_timestamps_stream_foreign.
Print Assumptions C14_ts_member_shape.

(* ------------------------------------------------------------------ "foreign" = "does not follow the naming pattern" *)
Require Import FL.Flw.NumListing FL.Flw.CleanupFacts FL.Time.TsFormat FL.Flw.MemberPattern.
(* The member tests in the hypotheses above accept EXACTLY the names of the logger's own naming pattern: the configured name
   parts, an infix of the ACTIVE naming - "r" and one or more digits, nothing else, for the number namings; a time stamp r%Y-%m-%d_%H-%M-%S for the time-stamp namings: chrono reads it
   AND it is exactly the text that the format writes for the instant read (canonical_ts: no blanks, signs, unpadded numbers) -, optionally a restart counter, the configured suffix, optionally ".gz"
   (the archive of a file with the suffix "gz" has no second ".gz"); or the rCURRENT file where the naming has one. *)
Theorem C14_num_member_pattern c n :
  num_member c n = true <->
  n = cname c \/
  exists ds rs gz, ds <> [] /\ all_digits ds = true /\ restart_part rs
    /\ (gz = [] \/ (gz = dot_gz /\ fsfx (c_spec c) <> Some gz_sfx))
    /\ n = under (fixed0 c) ++ r_char :: ds ++ rs ++ sfxs (c_spec c) ++ gz.
Proof. exact (num_member_iff c n). Qed.

Theorem C14_numd_member_pattern c n :
  numd_member c n = true <->
  exists ds rs gz, ds <> [] /\ all_digits ds = true /\ restart_part rs
    /\ (gz = [] \/ (gz = dot_gz /\ fsfx (c_spec c) <> Some gz_sfx))
    /\ n = under (fixed0 c) ++ r_char :: ds ++ rs ++ sfxs (c_spec c) ++ gz.
Proof. exact (numd_member_iff c n). Qed.

Theorem C14_tsd_member_pattern c n :
  tsd_member c n = true <->
  exists i rs gz, canonical_ts std_fmt i = true /\ no_dot i /\ restart_part rs /\ (gz = [] \/ gz = dot_gz)
    /\ n = under (fixed0 c) ++ i ++ rs ++ sfxs (c_spec c) ++ gz.
Proof. exact (tsd_member_iff c n). Qed.

Theorem C14_ts_member_pattern c n :
  ts_member c n = true <->
  n = cname c \/
  exists i rs gz, canonical_ts std_fmt i = true /\ no_dot i /\ restart_part rs /\ (gz = [] \/ gz = dot_gz)
    /\ n = under (fixed0 c) ++ i ++ rs ++ sfxs (c_spec c) ++ gz.
Proof. exact (ts_member_iff c n). Qed.

(* a name with anything but digits between "<fixed>_r" and the first dot is foreign for the number namings *)
Theorem C14_num_foreign_non_digit c rest :
  (upto_dot rest = [] \/ all_digits (upto_dot rest) = false) ->
  under (fixed0 c) ++ r_char :: rest <> cname c ->
  num_member c (under (fixed0 c) ++ r_char :: rest) = false.
Proof. exact (num_foreign_non_digit c rest). Qed.

(* the infix of the OTHER naming is foreign: the numbered files are foreign for a logger with a time-stamp naming, the
   time-stamped files are foreign for a logger with a number naming (same name parts, same suffix) *)
Theorem C14_number_files_foreign_ts c n : numd_member c n = true -> ts_member c n = false.
Proof. exact (number_files_foreign_ts c n). Qed.
Theorem C14_ts_files_foreign_number c n : tsd_member c n = true -> num_member c n = false.
Proof. exact (ts_files_foreign_number c n). Qed.

Print Assumptions C14_num_member_pattern.
Print Assumptions C14_numd_member_pattern.
Print Assumptions C14_tsd_member_pattern.
Print Assumptions C14_ts_member_pattern.
Print Assumptions C14_num_foreign_non_digit.
Print Assumptions C14_number_files_foreign_ts.
Print Assumptions C14_ts_files_foreign_number.

(* non-vacuity: the names that the code took for the logger's own before the two repairs are foreign now, for the number
   namings (a letter, a word behind the number, a time-stamp infix) and for the time-stamp namings (a number infix, a
   time stamp and a letter); the runs with such files in the directory: NumForeign.near_miss_not_member,
   NumDForeign.near_miss_not_member_d, NumCleanupForeign.cleanup_foreign_instance_dir, TsdForeign.number_infix_foreign_td,
   TsForeign.number_infix_foreign_t *)
Import String.StringSyntax.
Example C14_repaired_names_foreign :
  let names := List.map bs ["a_r1x.log"; "a_r1backup.log"; "a_r00001x.log"; "a_r2024-02-29_23-59-58.log"]%string in
  let tnames := List.map bs ["a_r00001.log"; "a_r1x.log"; "a_r00001.log.gz"; "a_r2030-01-01_00-00-00x.log"]%string in
  List.map (num_member ex_c) names = [false; false; false; false]
  /\ List.map (numd_member exdf_c) names = [false; false; false; false]
  /\ List.map (tsd_member extd_c) tnames = [false; false; false; false]
  /\ List.map (ts_member extf_c) tnames = [false; false; false; false].
Proof. vm_compute. repeat split; reflexivity. Qed.

(* END TO END non-interference, NumbersDirect naming WITH a cleanup strategy (Flw/NumDCleanupForeign.v): the cleanup - which
   for this naming works on a listing that contains the file being written - lists, removes and compresses family files only.
   With arbitrary foreign files in the directory (names that numd_member rejects; the rCURRENT name is foreign here) the
   observations are those of the run in the empty directory (snapshots modulo the foreign entries), every foreign file is
   unchanged - neither removed nor compressed -, and all other names and contents are exactly those of the clean run *)
Require Import FL.Flw.NumDRun FL.Flw.NumDCleanupStep FL.Flw.NumDCleanupRun FL.Flw.NumDCleanup FL.Flw.NumDCleanupForeign.
Theorem C14_numbersdirect_cleanup_foreign_ignored c crit k t0 off foreign ops :
  numdkcfg c crit k -> Forall basic_op ops ->
  dside c k (nclosed (a_run None ops (snd (run (fst (step (sys0 t0 off) (OStart c))) ops)))) ->
  NoDup (List.map fst foreign) ->
  (forall n, In n (List.map fst foreign) -> numd_member c n = false) ->
  let ops' := OStart c :: ops ++ [OStop] in
  let rf := run (sys0f t0 off foreign) ops' in
  let r0 := run (sys0 t0 off) ops' in
  List.map (strip_obs (List.map fst foreign)) (snd rf) = snd r0
  /\ (Forall (fun o => o <> OSnap) ops -> snd rf = snd r0)
  /\ (forall n d, In (n, d) foreign -> file_of (wfs (s_w (fst rf))) n = Some (plain_file t0 d))
  /\ (forall n, ~ In n (List.map fst foreign) -> file_of (wfs (s_w (fst rf))) n = file_of (wfs (s_w (fst r0))) n)
  /\ (forall n, In n (List.map fst foreign) -> file_of (wfs (s_w (fst r0))) n = None)
  /\ fst rf = embedx (names (fs0f t0 foreign)) (inodes (fs0f t0 foreign)) (fst r0).
Proof. exact (numbersdirect_cleanup_foreign_ignored c crit k t0 off foreign ops). Qed.

(* ... so C07_numbersdirect_cleanup carries over: what the directory with the foreign files holds after the run *)
Theorem C14_numbersdirect_cleanup_foreign_dir c crit k n m t0 off foreign ops closed cur :
  numdkcfg c crit k -> klimd k = Some (n, m) -> Forall basic_op ops ->
  sfx_ok (c_spec c) ->
  a_run None ops (snd (run (fst (step (sys0 t0 off) (OStart c))) ops)) = Some (closed, cur) ->
  NoDup (List.map fst foreign) ->
  (forall x, In x (List.map fst foreign) -> numd_member c x = false) ->
  let ff := wfs (s_w (fst (run (sys0f t0 off foreign) (OStart c :: ops ++ [OStop])))) in
  let L := length closed in let lo := S L - (n + m) in let mid := S L - n in
  concat closed ++ cur = written ops
  /\ (forall x, file_of ff x <> None <->
        In x (List.map fst foreign) \/ (exists i, mid <= i <= L /\ x = rname c i)
        \/ (exists i, lo <= i < mid /\ x = gname c i))
  /\ (forall x d, In (x, d) foreign -> file_of ff x = Some (plain_file t0 d))
  /\ (forall i, mid <= i < L ->
        exists fl, file_of ff (rname c i) = Some fl /\ fdata fl = nth i closed [] /\ fgz fl = 0%N /\ fdir fl = false)
  /\ (forall i, lo <= i < mid ->
        exists fl, file_of ff (gname c i) = Some fl /\ fdata fl = nth i closed [] /\ fgz fl = 1%N /\ fdir fl = false)
  /\ (exists fl, file_of ff (rname c L) = Some fl /\ fdata fl = cur /\ fgz fl = 0%N /\ fdir fl = false)
  /\ (forall i, i < lo -> file_of ff (rname c i) = None /\ file_of ff (gname c i) = None).
Proof. exact (numbersdirect_cleanup_foreign_dir c crit k n m t0 off foreign ops closed cur). Qed.

Check C14_numbersdirect_cleanup_foreign_ignored.
Print Assumptions C14_numbersdirect_cleanup_foreign_ignored.
Check C14_numbersdirect_cleanup_foreign_dir.
Print Assumptions C14_numbersdirect_cleanup_foreign_dir.
(* non-vacuity: NumDCleanupForeign.cleanup_foreign_hypotheses_d / cleanup_foreign_instance_d / cleanup_foreign_instance_dir_d
   (twenty foreign files, KLogGz 2 1, three rotations); the boundary - a stranger's file whose name follows the pattern is a
   member and is cleaned up: NumDCleanupForeign.member_file_is_cleaned_d *)
Check cleanup_foreign_instance_dir_d.
Check member_file_is_cleaned_d.

(* END TO END non-interference, the TIME-STAMP namings WITH a cleanup strategy (Flw/TsdCleanupForeign.v, Flw/TsCleanupForeign.v):
   the cleanup lists with the time-stamp filter; it lists, removes and compresses family files only.  With arbitrary foreign
   files in the directory (names that tsd_member / ts_member rejects; for TimestampsDirect the rCURRENT name is foreign) the
   observations are those of the run in the empty directory (snapshots modulo the foreign entries), every foreign file is
   unchanged - neither removed nor compressed -, and all other names and contents are exactly those of the clean run.
   Hypotheses: those of C07 for these namings (suffix not gz / not ending with .gz, a clock that does not go backwards, the
   years 1970..9999) plus NoDup and the member test. *)
Require Import FL.Time.Civil FL.Flw.TsNames FL.Flw.TsInv FL.Flw.TsRun FL.Flw.TsdCleanupRun FL.Flw.TsCleanupRun
  FL.Flw.TsdCleanupForeign FL.Flw.TsCleanupForeign.
Theorem C14_timestampsdirect_cleanup_foreign_ignored c crit k t0 off foreign ops :
  tsdkcfg c crit k -> tag_ok c -> sfx_ok (c_spec c) -> Forall basic_op ops -> Forall tick_ok ops ->
  (0 <= t0 + ts_e c off)%Z -> (t0 + elapsed ops + ts_e c off < sec_max)%Z -> (N.of_nat (length ops) <= usize_max)%N ->
  NoDup (List.map fst foreign) ->
  (forall n, In n (List.map fst foreign) -> tsd_member c n = false) ->
  let ops' := OStart c :: ops ++ [OStop] in
  let rf := run (sys0f t0 off foreign) ops' in
  let r0 := run (sys0 t0 off) ops' in
  List.map (strip_obs (List.map fst foreign)) (snd rf) = snd r0
  /\ (Forall (fun o => o <> OSnap) ops -> snd rf = snd r0)
  /\ (forall n d, In (n, d) foreign -> file_of (wfs (s_w (fst rf))) n = Some (plain_file t0 d))
  /\ (forall n, ~ In n (List.map fst foreign) -> file_of (wfs (s_w (fst rf))) n = file_of (wfs (s_w (fst r0))) n)
  /\ (forall n, In n (List.map fst foreign) -> file_of (wfs (s_w (fst r0))) n = None)
  /\ fst rf = embedx (names (fs0f t0 foreign)) (inodes (fs0f t0 foreign)) (fst r0).
Proof. exact (timestampsdirect_cleanup_foreign_ignored c crit k t0 off foreign ops). Qed.

(* ... so C07_timestampsdirect_cleanup carries over: what the directory with the foreign files holds after the run *)
Theorem C14_timestampsdirect_cleanup_foreign_dir c crit k n m t0 off foreign ops closed cur :
  tsdkcfg c crit k -> klimd k = Some (n, m) -> tag_ok c -> sfx_ok (c_spec c) ->
  Forall basic_op ops -> Forall tick_ok ops ->
  (0 <= t0 + ts_e c off)%Z -> (t0 + elapsed ops + ts_e c off < sec_max)%Z -> (N.of_nat (length ops) <= usize_max)%N ->
  a_run None ops (snd (run (fst (step (sys0 t0 off) (OStart c))) ops)) = Some (closed, cur) ->
  NoDup (List.map fst foreign) ->
  (forall x, In x (List.map fst foreign) -> tsd_member c x = false) ->
  let ff := wfs (s_w (fst (run (sys0f t0 off foreign) (OStart c :: ops ++ [OStop])))) in
  let L := length closed in let lo := S L - (n + m) in let mid := S L - n in
  concat closed ++ cur = written ops
  /\ exists keys : list key,
       let K i := kname c (ts_e c off) (nth i keys kd) in
       let G i := gz_name (K i) in
       length keys = S L /\ keys_ok keys /\ (forall key, In key keys -> (t0 <= fst key <= t0 + elapsed ops)%Z)
       /\ (forall x, file_of ff x <> None <->
             In x (List.map fst foreign) \/ (exists i, mid <= i <= L /\ x = K i) \/ (exists i, lo <= i < mid /\ x = G i))
       /\ (forall x d, In (x, d) foreign -> file_of ff x = Some (plain_file t0 d))
       /\ (forall i, mid <= i < L ->
             exists fl, file_of ff (K i) = Some fl /\ fdata fl = nth i closed [] /\ fgz fl = 0%N /\ fdir fl = false)
       /\ (forall i, lo <= i < mid ->
             exists fl, file_of ff (G i) = Some fl /\ fdata fl = nth i closed [] /\ fgz fl = 1%N /\ fdir fl = false)
       /\ (exists fl, file_of ff (K L) = Some fl /\ fdata fl = cur /\ fgz fl = 0%N /\ fdir fl = false)
       /\ (forall i, i < lo -> file_of ff (K i) = None /\ file_of ff (G i) = None)
       /\ (forall i, lo <= i < mid -> file_of ff (K i) = None).
Proof. exact (timestampsdirect_cleanup_foreign_dir c crit k n m t0 off foreign ops closed cur). Qed.

Theorem C14_timestamps_cleanup_foreign_ignored c crit k t0 off foreign ops :
  tskcfg c crit k -> tag_ok c -> sfx_ok (c_spec c) -> Forall basic_op ops -> Forall tick_ok ops ->
  (0 <= t0 + ts_e c off)%Z -> (t0 + elapsed ops + ts_e c off < sec_max)%Z -> (N.of_nat (length ops) <= usize_max)%N ->
  NoDup (List.map fst foreign) ->
  (forall n, In n (List.map fst foreign) -> ts_member c n = false) ->
  let ops' := OStart c :: ops ++ [OStop] in
  let rf := run (sys0f t0 off foreign) ops' in
  let r0 := run (sys0 t0 off) ops' in
  List.map (strip_obs (List.map fst foreign)) (snd rf) = snd r0
  /\ (Forall (fun o => o <> OSnap) ops -> snd rf = snd r0)
  /\ (forall n d, In (n, d) foreign -> file_of (wfs (s_w (fst rf))) n = Some (plain_file t0 d))
  /\ (forall n, ~ In n (List.map fst foreign) -> file_of (wfs (s_w (fst rf))) n = file_of (wfs (s_w (fst r0))) n)
  /\ (forall n, In n (List.map fst foreign) -> file_of (wfs (s_w (fst r0))) n = None)
  /\ fst rf = embedx (names (fs0f t0 foreign)) (inodes (fs0f t0 foreign)) (fst r0).
Proof. exact (timestamps_cleanup_foreign_ignored c crit k t0 off foreign ops). Qed.

(* ... so C07_timestamps_cleanup carries over *)
Theorem C14_timestamps_cleanup_foreign_dir c crit k n m t0 off foreign ops closed cur :
  tskcfg c crit k -> klim k = Some (n, m) -> tag_ok c -> sfx_ok (c_spec c) ->
  Forall basic_op ops -> Forall tick_ok ops ->
  (0 <= t0 + ts_e c off)%Z -> (t0 + elapsed ops + ts_e c off < sec_max)%Z -> (N.of_nat (length ops) <= usize_max)%N ->
  a_run None ops (snd (run (fst (step (sys0 t0 off) (OStart c))) ops)) = Some (closed, cur) ->
  NoDup (List.map fst foreign) ->
  (forall x, In x (List.map fst foreign) -> ts_member c x = false) ->
  let ff := wfs (s_w (fst (run (sys0f t0 off foreign) (OStart c :: ops ++ [OStop])))) in
  let L := length closed in let lo := L - (n + m) in let mid := L - n in
  concat closed ++ cur = written ops
  /\ exists keys : list key,
       let K i := kname c (ts_e c off) (nth i keys kd) in
       let G i := gz_name (K i) in
       length keys = L /\ keys_ok keys /\ (forall key, In key keys -> (t0 <= fst key <= t0 + elapsed ops)%Z)
       /\ (forall x, file_of ff x <> None <->
             In x (List.map fst foreign) \/ x = cname c \/ (exists i, mid <= i < L /\ x = K i) \/ (exists i, lo <= i < mid /\ x = G i))
       /\ (forall x d, In (x, d) foreign -> file_of ff x = Some (plain_file t0 d))
       /\ (forall i, mid <= i < L ->
             exists fl, file_of ff (K i) = Some fl /\ fdata fl = nth i closed [] /\ fgz fl = 0%N /\ fdir fl = false)
       /\ (forall i, lo <= i < mid ->
             exists fl, file_of ff (G i) = Some fl /\ fdata fl = nth i closed [] /\ fgz fl = 1%N /\ fdir fl = false)
       /\ (exists fl, file_of ff (cname c) = Some fl /\ fdata fl = cur /\ fgz fl = 0%N /\ fdir fl = false)
       /\ (forall i, i < lo -> file_of ff (K i) = None /\ file_of ff (G i) = None)
       /\ (forall i, lo <= i < mid -> file_of ff (K i) = None).
Proof. exact (timestamps_cleanup_foreign_dir c crit k n m t0 off foreign ops closed cur). Qed.

Check C14_timestampsdirect_cleanup_foreign_ignored.
Print Assumptions C14_timestampsdirect_cleanup_foreign_ignored.
Check C14_timestampsdirect_cleanup_foreign_dir.
Print Assumptions C14_timestampsdirect_cleanup_foreign_dir.
Check C14_timestamps_cleanup_foreign_ignored.
Print Assumptions C14_timestamps_cleanup_foreign_ignored.
Check C14_timestamps_cleanup_foreign_dir.
Print Assumptions C14_timestamps_cleanup_foreign_dir.
(* non-vacuity: TsdCleanupForeign.cleanup_foreign_hypotheses_td / cleanup_foreign_instance_td / cleanup_foreign_instance_dir_td /
   cleanup_foreign_dir_instance_td (twenty foreign files, KLogGz 2 1, three rotations, append), TsCleanupForeign.*_t (twenty-one
   foreign files, KLogGz 1 1); the boundary - a stranger's file whose name follows the pattern is a member, is continued
   (append) and is cleaned up: TsdCleanupForeign.member_file_is_cleaned_td, TsCleanupForeign.member_file_is_cleaned_t *)
Check cleanup_foreign_instance_dir_td.
Check cleanup_foreign_dir_instance_td.
Check member_file_is_cleaned_td.
Check cleanup_foreign_instance_dir_t.
Check cleanup_foreign_dir_instance_t.
Check member_file_is_cleaned_t.

(* the infix of a member of a time-stamp naming IS a text that the format writes (for some civil time): what only chrono's
   lenient parser reads as a time stamp - a blank or a sign in front, numbers without padding - is not (repair b8c3c12) *)
Theorem C14_ts_infix_is_written_text i :
  canonical_ts std_fmt i = true -> exists cv, i = format_ts std_fmt cv.
Proof.
  unfold canonical_ts. destruct (parse_ts_local std_fmt i) as [l|]; [|discriminate].
  intros H. apply Bool.orb_true_iff in H. destruct H as [H|H].
  - apply beq_eq in H. eexists. symmetry. exact H.
  - apply Bool.andb_true_iff in H. destruct H as [_ H]. apply beq_eq in H. eexists. symmetry. exact H.
Qed.
Check C14_ts_infix_is_written_text.
Print Assumptions C14_ts_infix_is_written_text.

(* non-vacuity / the reviewer's names: chrono reads each of them as a time stamp, none is a text the format writes; the
   logger's own text and a leap second are *)
Example C14_lenient_names_foreign :
  List.map (fun s => (match parse_ts_local std_fmt (bs s) with Some _ => true | None => false end, canonical_ts std_fmt (bs s)))
           ["r2024-1-5_3-4-5"; "r+2024-01-05_03-04-05"; "r 2024-01-05_03-04-05"; "r2024-01-05_03-04-5";
            "r2024-01-05_03-04-05"; "r2024-02-29_23-59-60"]%string
  = [(true, false); (true, false); (true, false); (true, false); (true, true); (true, true)].
Proof. vm_compute. reflexivity. Qed.
