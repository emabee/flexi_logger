(* C06 - restarts preserve earlier runs' records.  Statements only: soundness of the executable oracles that are
   applied to the implementation's directory snapshots. *)
Require Import FL.Base.Bytes FL.Base.BytesFacts FL.Fs.Fs FL.Flw.Model FL.Flw.Run FL.Flw.NumInv FL.Flw.NumRun FL.Flw.NumTheorems FL.Flw.NumRestart FL.Oracles.O_Flw FL.Oracles.ReaderOrder FL.Oracles.O_Stream FL.Oracles.OracleFacts.

(* oracle_all accepts exactly when the reader's stream is everything that was logged *)
Theorem C06_oracle_sound : forall c logged l, oracle_all c logged l = true -> stream_of c l = logged.
Proof. intros c logged l H. apply beq_eq. exact H. Qed.

(* oracle_tail accepts only when what was logged is some old part followed by exactly the reader's stream *)
Theorem C06_tail_sound : forall c logged l, oracle_tail c logged l = true -> exists pre, logged = pre ++ stream_of c l.
Proof. exact oracle_tail_sound. Qed.


(* Numbers naming, any number of runs on one directory (each run with its own criterion, buffer capacity and append
   flag, same file specification): after the last run, r00000, r00001, ..., rCURRENT hold - in this order - exactly what
   all runs wrote; nothing lost, nothing duplicated.  (partial: histories of less than 2^32 operations - the index that is
   read back from a file name is a u32 -, no cleanup, no faults) *)
Theorem C06_restarts_numbers sp t0 off rs :
  (N.of_nat (length (runs_ops rs)) <= u32_max)%N ->
  Forall (fun r => c_spec (fst r) = sp /\ (exists crit, numcfg (fst r) crit) /\ Forall basic_op (snd r)) rs ->
  exists files,
    (forall c, c_spec c = sp -> reads c (wfs (s_w (fst (run (sys0 t0 off) (runs_ops rs))))) files)
    /\ concat files = runs_written rs.
Proof. exact (numbers_restarts_partial sp t0 off rs). Qed.

(* ... and no closed file is touched by a later run: it keeps its number and its content; the file that was current
   is continued or closed under the next number, its old content first *)
Theorem C06_restarts_keep sp t0 off rs1 rs2 :
  (N.of_nat (length (runs_ops (rs1 ++ rs2))) <= u32_max)%N ->
  Forall (fun r => c_spec (fst r) = sp /\ (exists crit, numcfg (fst r) crit) /\ Forall basic_op (snd r)) (rs1 ++ rs2) ->
  exists files1 files2,
    (forall c, c_spec c = sp -> reads c (wfs (s_w (fst (run (sys0 t0 off) (runs_ops rs1))))) files1)
    /\ concat files1 = runs_written rs1
    /\ (forall c, c_spec c = sp -> reads c (wfs (s_w (fst (run (sys0 t0 off) (runs_ops (rs1 ++ rs2)))))) files2)
    /\ concat files2 = runs_written (rs1 ++ rs2)
    /\ (files1 = [] \/ exists closed cur t more, files1 = closed ++ [cur] /\ files2 = closed ++ [cur ++ t] ++ more).
Proof. exact (numbers_restarts_keep sp t0 off rs1 rs2). Qed.

Require Import FL.Flw.NumDInv FL.Flw.NumDRun FL.Flw.NumDTheorems FL.Flw.NumDRestart.
(* the same for NumbersDirect naming: with append the newest file is continued, without append the next number is started *)
Theorem C06_restarts_numbersdirect sp t0 off rs :
  (N.of_nat (length (runs_ops rs)) <= u32_max)%N ->
  Forall (fun r => c_spec (fst r) = sp /\ (exists crit, numdcfg (fst r) crit) /\ Forall basic_op (snd r)) rs ->
  exists files,
    (forall c, c_spec c = sp -> direct_view c (wfs (s_w (fst (run (sys0 t0 off) (runs_ops rs))))) files)
    /\ concat files = runs_written rs.
Proof. exact (numbersdirect_restarts_partial sp t0 off rs). Qed.

Require Import FL.Flw.TsTime FL.Flw.TsNames FL.Flw.TsInv FL.Flw.TsRun FL.Flw.TsTheorems FL.Flw.TsRestartInv FL.Flw.TsRestart.
(* Timestamps naming, any sequence of runs (own criterion, capacity, append flag per run; ticks inside and between runs; all runs with the same
   use_utc setting - shown necessary by an example): the closed files carry keys (second, position) that are pairwise distinct and increase in
   closing order over the WHOLE history - no name is used twice across runs - and closed files ++ rCURRENT hold exactly what all runs wrote *)
Theorem C06_restarts_timestamps sp utc t0 off rs :
  Forall (run_ok_ts sp utc) rs ->
  let e := if utc then 0%Z else off in
  (0 <= t0 + e)%Z -> (t0 + elapsed (runs_ops_t rs) + e < sec_max)%Z -> (N.of_nat (length (runs_ops_t rs)) <= usize_max)%N ->
  let f := wfs (s_w (fst (run (sys0 t0 off) (runs_ops_t rs)))) in
  (names f = [] /\ runs_written_t rs = [])
  \/ exists keys closed cur,
       (forall c, c_spec c = sp -> ts_view c e f keys closed cur)
       /\ concat closed ++ cur = runs_written_t rs
       /\ keys_ok keys
       /\ (forall k, In k keys -> (t0 <= fst k <= t0 + elapsed (runs_ops_t rs))%Z).
Proof. exact (timestamps_restarts sp utc t0 off rs). Qed.

(* ... and a later run never changes a closed file; the former rCURRENT is continued (append) or closed under the key of its own creation second *)
Theorem C06_restarts_timestamps_keep sp utc t0 off rs1 rs2 :
  Forall (run_ok_ts sp utc) (rs1 ++ rs2) ->
  let e := if utc then 0%Z else off in
  (0 <= t0 + e)%Z -> (t0 + elapsed (runs_ops_t (rs1 ++ rs2)) + e < sec_max)%Z ->
  (N.of_nat (length (runs_ops_t (rs1 ++ rs2))) <= usize_max)%N ->
  let f1 := wfs (s_w (fst (run (sys0 t0 off) (runs_ops_t rs1)))) in
  let f2 := wfs (s_w (fst (run (sys0 t0 off) (runs_ops_t (rs1 ++ rs2))))) in
  (names f1 = [] /\ runs_written_t rs1 = [])
  \/ exists keys1 closed1 cur1 ts1 keys2 closed2 cur2,
       (forall c, c_spec c = sp ->
          ts_view c e f1 keys1 closed1 cur1 /\ exists j, lookup f1 (cname c) = Some j /\ fborn (inode f1 j) = ts1)
       /\ concat closed1 ++ cur1 = runs_written_t rs1
       /\ (forall k, In k keys1 -> (fst k <= ts1)%Z)
       /\ (forall c, c_spec c = sp -> ts_view c e f2 keys2 closed2 cur2)
       /\ concat closed2 ++ cur2 = runs_written_t (rs1 ++ rs2)
       /\ keys_ok keys2
       /\ ((keys2 = keys1 /\ closed2 = closed1 /\ exists t, cur2 = cur1 ++ t)
           \/ exists t mk mc, keys2 = keys1 ++ (ts1, count ts1 keys1) :: mk /\ closed2 = closed1 ++ (cur1 ++ t) :: mc).
Proof. exact (timestamps_restarts_keep sp utc t0 off rs1 rs2). Qed.

Require Import FL.Flw.TsdInv FL.Flw.TsdRun FL.Flw.TsdTheorems FL.Flw.TsParse FL.Flw.TsdRestartInv FL.Flw.TsdRestart.
(* TimestampsDirect naming over sequences of runs, local time or use_utc with any zone offset (for a run with append the probe
   name rXXXXX must not occur in the fixed name part; the proof found that with use_utc and a zone offset <> 0 the newest file
   was not found again and records were reordered - repaired in the code, see Flw/TsdRestart.v) *)
Theorem C06_restarts_timestampsdirect sp utc t0 off rs :
  Forall (run_ok_tsd sp utc) rs ->
  let e := if utc then 0%Z else off in
  (0 <= t0 + e)%Z -> (t0 + elapsed (runs_ops_t rs) + e < sec_max)%Z -> (N.of_nat (length (runs_ops_t rs)) <= usize_max)%N ->
  let f := wfs (s_w (fst (run (sys0 t0 off) (runs_ops_t rs)))) in
  exists keys files,
    (forall c, c_spec c = sp -> tsd_view c e f keys files)
    /\ concat files = runs_written_t rs
    /\ keys_ok keys
    /\ (forall k, In k keys -> (t0 <= fst k <= t0 + elapsed (runs_ops_t rs))%Z).
Proof. exact (timestampsdirect_restarts sp utc t0 off rs). Qed.

(* ... only the last file of the previous state can be continued (append); without append no earlier file is touched *)
Theorem C06_restarts_timestampsdirect_keep sp utc t0 off rs1 rs2 :
  Forall (run_ok_tsd sp utc) (rs1 ++ rs2) ->
  let e := if utc then 0%Z else off in
  (0 <= t0 + e)%Z -> (t0 + elapsed (runs_ops_t (rs1 ++ rs2)) + e < sec_max)%Z ->
  (N.of_nat (length (runs_ops_t (rs1 ++ rs2))) <= usize_max)%N ->
  let f1 := wfs (s_w (fst (run (sys0 t0 off) (runs_ops_t rs1)))) in
  let f2 := wfs (s_w (fst (run (sys0 t0 off) (runs_ops_t (rs1 ++ rs2))))) in
  exists keys1 files1 keys2 files2,
    (forall c, c_spec c = sp -> tsd_view c e f1 keys1 files1)
    /\ concat files1 = runs_written_t rs1
    /\ (forall c, c_spec c = sp -> tsd_view c e f2 keys2 files2)
    /\ concat files2 = runs_written_t (rs1 ++ rs2)
    /\ keys_ok keys2
    /\ (files1 = []
        \/ exists closed cur t mk more,
             files1 = closed ++ [cur] /\ keys2 = keys1 ++ mk /\ files2 = closed ++ (cur ++ t) :: more)
    /\ (Forall no_append rs2 -> exists mk more, keys2 = keys1 ++ mk /\ files2 = files1 ++ more).
Proof. exact (timestampsdirect_restarts_keep sp utc t0 off rs1 rs2). Qed.

Check C06_oracle_sound. Check C06_tail_sound. Check C06_restarts_numbers. Check C06_restarts_keep.
Print Assumptions C06_restarts_numbers.
Print Assumptions C06_restarts_keep.
Print Assumptions C06_oracle_sound.
Print Assumptions C06_tail_sound.
Check C06_restarts_numbersdirect.
Print Assumptions C06_restarts_numbersdirect.
Check C06_restarts_timestamps.
Print Assumptions C06_restarts_timestamps.
Check C06_restarts_timestamps_keep.
Print Assumptions C06_restarts_timestamps_keep.
Check C06_restarts_timestampsdirect.
Print Assumptions C06_restarts_timestampsdirect.
Check C06_restarts_timestampsdirect_keep.
Print Assumptions C06_restarts_timestampsdirect_keep.

(* ------------------------------------------------------------------ sequences of runs WITH a cleanup strategy (Numbers naming; proofs:
   Flw/NumCleanupRestart*.v) *)
Require Import FL.Flw.CleanupFacts FL.Flw.NumCleanupNames FL.Flw.NumCleanupStep FL.Flw.NumCleanupRun FL.Flw.NumCleanup
  FL.Flw.NumCleanupKillDir FL.Flw.NumCleanupKillRestart FL.Flw.NumCleanupRestart FL.Flw.NumCleanupRestartTheorems FL.Flw.NumCleanupRestartVar FL.Flw.NumCleanupRestartVarTheorems.
Local Open Scope nat_scope.
(* every run with the same strategy (limits n, m), own criterion / capacity / append flag / history: the directory is in the
   shape a single run leaves - rCURRENT, the newest n closed files plain, the next m as archives of exactly what was closed
   under that number, nothing else - and holds a SUFFIX of what all runs wrote *)
Theorem C06_restarts_numbers_cleanup sp k n m t0 off rs :
  klim k = Some (n, m) -> sfx_ok sp ->
  (N.of_nat (length (runs_ops rs)) <= u32_max)%N ->
  Forall (fun r => c_spec (fst r) = sp /\ (exists crit, numkcfg (fst r) crit k) /\ Forall basic_op (snd r)) rs ->
  let f := wfs (s_w (fst (run (sys0 t0 off) (runs_ops rs)))) in
  (names f = [] /\ runs_written rs = [])
  \/ exists closed cur,
       (forall c, c_spec c = sp -> kreader_view c f closed cur (length closed - (n + m)) (length closed - n))
       /\ concat closed ++ cur = runs_written rs.
Proof. exact (numbers_cleanup_restarts sp k n m t0 off rs). Qed.

(* a later run never changes the content found under a number: what a reader finds under number i after rs1 is still found
   there after rs1 ++ rs2 (possibly as an archive now), or the cleanup has removed it *)
Theorem C06_restarts_numbers_cleanup_keep sp k n m t0 off rs1 rs2 c i d :
  klim k = Some (n, m) -> sfx_ok sp ->
  (N.of_nat (length (runs_ops (rs1 ++ rs2))) <= u32_max)%N ->
  Forall (fun r => c_spec (fst r) = sp /\ (exists crit, numkcfg (fst r) crit k) /\ Forall basic_op (snd r)) (rs1 ++ rs2) ->
  c_spec c = sp ->
  let f1 := wfs (s_w (fst (run (sys0 t0 off) (runs_ops rs1)))) in
  let f2 := wfs (s_w (fst (run (sys0 t0 off) (runs_ops (rs1 ++ rs2))))) in
  reads_at c f1 i d ->
  (reads_at c f2 i d /\ (lookup f1 (rname c i) = None -> lookup f2 (rname c i) = None))
  \/ (lookup f2 (rname c i) = None /\ lookup f2 (gname c i) = None).
Proof. exact (numbers_cleanup_restarts_keep_files sp k n m t0 off rs1 rs2 c i d). Qed.

(* each run with its own strategy, as long as every strategy keeps at least A >= 1 files (B of them plain) or is Never
   (with a strategy that keeps nothing the numbering restarts at 0 and a number is reused: counterexample in
   Flw/NumCleanupRestartEx.v reused_number_counterexample) *)
Theorem C06_restarts_numbers_cleanup_varying sp A B t0 off rs :
  1 <= A -> sfx_ok sp ->
  (N.of_nat (length (runs_ops rs)) <= u32_max)%N ->
  Forall (fun r => c_spec (fst r) = sp /\ (exists crit k, numkcfg (fst r) crit k /\ kok A B k) /\ Forall basic_op (snd r)) rs ->
  let f := wfs (s_w (fst (run (sys0 t0 off) (runs_ops rs)))) in
  (names f = [] /\ runs_written rs = [])
  \/ exists closed cur lo mid,
       (forall c, c_spec c = sp -> kreader_view c f closed cur lo mid)
       /\ concat closed ++ cur = runs_written rs
       /\ Nat.min (length closed) A <= length closed - lo /\ Nat.min (length closed) B <= length closed - mid
       /\ (forall rs0 c ops crit k n m, rs = rs0 ++ [(c, ops)] -> existsb is_wr ops = true -> numkcfg c crit k ->
             klim k = Some (n, m) -> length closed - mid <= n /\ length closed - lo <= n + m).
Proof. exact (numbers_cleanup_restarts_varying sp A B t0 off rs). Qed.

Check C06_restarts_numbers_cleanup. Check C06_restarts_numbers_cleanup_keep. Check C06_restarts_numbers_cleanup_varying.
Print Assumptions C06_restarts_numbers_cleanup.
Print Assumptions C06_restarts_numbers_cleanup_keep.
Print Assumptions C06_restarts_numbers_cleanup_varying.
