(* C10 - no panic.  Statements only. *)
Require Import FL.Base.Bytes FL.Fs.Fs FL.Names.FileSpec FL.Names.FamilyFacts FL.LogSpec.Spec FL.LogSpec.Dispatch FL.LogSpec.DispatchFacts.

(* log() and enabled() return normally for every target (braces unbalanced, empty, multi-byte next to the braces),
   every record, specification and writer set: in the model every slice that could panic is explicit *)
Theorem C10_dispatch_total :
  forall rm lg r lvl t,
    (exists evs, log_record rm lg r = Done evs) /\ (exists b evs, enabled_query lg lvl t = Done (b, evs)).
Proof.
  intros rm lg r lvl t. split.
  - destruct (brace_target (r_target r)) eqn:B; [rewrite log_record_brace by exact B | rewrite log_record_plain by exact B]; eexists; reflexivity.
  - destruct (brace_target t) eqn:B; [rewrite enabled_query_brace by exact B | rewrite enabled_query_plain by exact B]; eexists; eexists; reflexivity.
Qed.

(* the directory listing and its filters return normally for every set of file names: no name, however short
   or with multi-byte characters at whatever position, makes them panic *)
Theorem C10_listing_total :
  forall off sp fixed f flt sel, existing_rot off sp fixed f flt sel <> None.
Proof. exact existing_rot_total. Qed.

Require Import FL.Flw.Run FL.Flw.NumInv FL.Flw.NumRun FL.Flw.NumDInv FL.Flw.TsTime FL.Flw.TsNames FL.Flw.TsInv FL.Flw.TsRun FL.Flw.TsTheorems FL.Flw.NumKillRestart FL.Flw.NumCleanupRun FL.Flw.NoPanic.
(* no operation of any history panics or fails (model, Numbers naming; the same for the other proved namings below) *)
Theorem C10_numbers_no_panic c crit t0 off ops :
  numcfg c crit -> Forall basic_op ops ->
  Forall obs_ok (snd (run (sys0 t0 off) (OStart c :: ops ++ [OStop]))).
Proof. exact (numbers_no_panic c crit t0 off ops). Qed.

(* NumbersDirect naming *)
Theorem C10_numbersdirect_no_panic c crit t0 off ops :
  numdcfg c crit -> Forall basic_op ops ->
  Forall obs_ok (snd (run (sys0 t0 off) (OStart c :: ops ++ [OStop]))).
Proof. exact (numbersdirect_no_panic c crit t0 off ops). Qed.

(* Timestamps naming *)
Theorem C10_timestamps_no_panic c crit t0 off ops :
  tscfg c crit -> tag_ok c -> Forall basic_op ops -> Forall tick_ok ops ->
  (0 <= t0 + ts_e c off)%Z -> (t0 + elapsed ops + ts_e c off < sec_max)%Z -> (N.of_nat (length ops) <= usize_max)%N ->
  Forall obs_ok (snd (run (sys0 t0 off) (OStart c :: ops ++ [OStop]))).
Proof. exact (timestamps_no_panic c crit t0 off ops). Qed.

(* Numbers naming with a cleanup strategy *)
Theorem C10_numbers_cleanup_no_panic c crit k t0 off ops :
  numkcfg c crit k -> Forall basic_op ops ->
  kside c k (nclosed (a_run None ops (snd (run (fst (step (sys0 t0 off) (OStart c))) ops)))) ->
  Forall obs_ok (snd (run (sys0 t0 off) (OStart c :: ops ++ [OStop]))).
Proof. exact (numbers_cleanup_no_panic c crit k t0 off ops). Qed.

Check C10_dispatch_total. Check C10_listing_total.
Print Assumptions C10_dispatch_total.
Print Assumptions C10_listing_total.
Check C10_numbers_no_panic.
Print Assumptions C10_numbers_no_panic.
Check C10_numbersdirect_no_panic.
Print Assumptions C10_numbersdirect_no_panic.
Check C10_timestamps_no_panic.
Print Assumptions C10_timestamps_no_panic.
Check C10_numbers_cleanup_no_panic.
Print Assumptions C10_numbers_cleanup_no_panic.

Require Import FL.Flw.TsdInv FL.Flw.TsdNoPanic.
(* TimestampsDirect naming *)
Theorem C10_timestampsdirect_no_panic c crit t0 off ops :
  tsdcfg c crit -> tag_ok c -> Forall basic_op ops -> Forall tick_ok ops ->
  (0 <= t0 + ts_e c off)%Z -> (t0 + elapsed ops + ts_e c off < sec_max)%Z -> (N.of_nat (length ops) <= usize_max)%N ->
  Forall obs_ok (snd (run (sys0 t0 off) (OStart c :: ops ++ [OStop]))).
Proof. exact (timestampsdirect_no_panic c crit t0 off ops). Qed.
Check C10_timestampsdirect_no_panic.
Print Assumptions C10_timestampsdirect_no_panic.

Require Import FL.Flw.NumDCleanupRun FL.Flw.NumDCleanup.
(* NumbersDirect naming with a cleanup strategy *)
Theorem C10_numbersdirect_cleanup_no_panic c crit k t0 off ops :
  numdkcfg c crit k -> Forall basic_op ops ->
  dside c k (nclosed (a_run None ops (snd (run (fst (step (sys0 t0 off) (OStart c))) ops)))) ->
  Forall obs_ok (snd (run (sys0 t0 off) (OStart c :: ops ++ [OStop]))).
Proof. exact (numbersdirect_cleanup_no_panic c crit k t0 off ops). Qed.
Check C10_numbersdirect_cleanup_no_panic.
Print Assumptions C10_numbersdirect_cleanup_no_panic.

