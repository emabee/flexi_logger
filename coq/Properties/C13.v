(* C13 - brace targets, writer level ceilings and duplication.  Statements only. *)
Require Import FL.Base.Bytes FL.LogSpec.Spec FL.LogSpec.Dispatch FL.LogSpec.DispatchFacts.
Open Scope nat_scope.

(* what log() does with a brace target, as one equation: the named writers are served, then - iff the list
   contains _Default - the default channel is treated exactly as for a plain record of the record's module path *)
Theorem C13_route :
  forall rm lg r, brace_target (r_target r) = true ->
    log_record rm lg r =
    Done (fst (serve (lg_others lg) (r_level r) (names_of (r_target r)))
          ++ if existsb (fun n => beq n w_default) (raw_names (r_target r))
             then primary_events rm lg r (match r_module r with Some m => m | None => [] end) else []).
Proof. exact log_record_brace. Qed.

(* each registered writer named in the list is handed the record exactly once - however often its name is
   repeated -, a registered writer that is not named never, whatever the specification says; each unknown name
   yields exactly one error-channel entry and nothing else *)
Theorem C13_served_exactly_once :
  forall ws lvl t n, beq n w_default = false ->
    count_writes n (fst (serve ws lvl (names_of t)))
      = match find_writer ws n with Some _ => if existsb (beq n) (raw_names t) then 1 else 0 | None => 0 end
    /\ count_bad n (fst (serve ws lvl (names_of t)))
      = match find_writer ws n with Some _ => 0 | None => if existsb (beq n) (raw_names t) then 1 else 0 end.
Proof.
  intros ws lvl t n H. destruct (serve_counts ws lvl (names_of t) n H) as [A B]. rewrite A, B.
  unfold names_of. rewrite count_dedup. cbn [existsb]. split; reflexivity.
Qed.

(* nothing else is produced for the additional writers, and no writer - custom, FileLogWriter or SyslogWriter - emits
   above its ceiling *)
Theorem C13_ceiling :
  forall ws lvl names n, In (EvWrite n true) (fst (serve ws lvl names)) ->
    exists w, find_writer ws n = Some w /\ In n names /\ lvl <= ow_max w.
Proof.
  intros ws lvl names n H. destruct (serve_events ws lvl names _ H) as [[m [w [E [I [D F]]]]]|[m [E _]]]; [|discriminate].
  injection E as Hn He. subst m. exists w. split; [exact F|]. split; [exact I|].
  unfold emits in He. apply Nat.leb_le. auto.
Qed.

(* the default channel is reached only through _Default and only if the specification enables the module path *)
Theorem C13_default_channel :
  forall rm lg r evs e, brace_target (r_target r) = true -> log_record rm lg r = Done evs -> In e evs -> is_primary e = true ->
    existsb (fun n => beq n w_default) (raw_names (r_target r)) = true
    /\ enabled (sp_filters (lg_spec lg)) (r_level r) (match r_module r with Some m => m | None => [] end) = true
    /\ text_ok rm lg r = true.
Proof.
  intros rm lg r evs e B HL HI HP. rewrite log_record_brace in HL by exact B. injection HL as HE. rewrite <- HE in HI.
  apply in_app_or in HI. destruct HI as [HI|HI].
  - destruct (serve_events _ _ _ _ HI) as [[n [w [E _]]]|[n [E _]]]; subst e; discriminate.
  - destruct (existsb _ _); [|destruct HI]. split; [reflexivity|].
    destruct (primary_events_spec _ _ _ _ _ HI) as [A [T _]]. split; assumption.
Qed.

(* duplication to stderr/stdout: a record that reaches the primary writer is duplicated exactly when its level is
   at or above the duplication level (Error = errors only ... Trace, All = everything, None = nothing) *)
Theorem C13_duplication :
  forall d lvl, 1 <= lvl <= 5 -> dup_match d lvl = Nat.leb 1 d && (Nat.leb lvl d || Nat.leb 5 d).
Proof. exact dup_match_spec. Qed.

(* run-time adaptation takes effect for the next record *)
Theorem C13_adapt :
  forall re_ok lg d, lg_dup_err (fst (hstep re_ok lg (HDupErr d))) = d /\ lg_dup_out (fst (hstep re_ok lg (HDupOut d))) = d.
Proof. intros; split; reflexivity. Qed.

Check C13_route. Check C13_served_exactly_once. Check C13_ceiling. Check C13_default_channel. Check C13_duplication.
Print Assumptions C13_route.
Print Assumptions C13_served_exactly_once.
Print Assumptions C13_default_channel.
