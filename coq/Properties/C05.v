(* C05 - run-time specification changes take full effect; push/pop is an exact stack.  Statements only. *)
Require Import FL.LogSpec.Spec FL.LogSpec.Dispatch FL.LogSpec.DispatchFacts.
Open Scope nat_scope.

(* For every sequence of the reconfiguration operations (with arbitrary strings) the handle's active
   specification and saved stack are exactly those of the abstract stack machine `astep`: set replaces the
   active specification, push saves it first, pop restores the most recently saved one (and does nothing on an
   empty stack), and a string that does not parse changes nothing. *)
Theorem C05_refines_stack :
  forall re_ok ops lg, abs (hrun re_ok lg ops) = fold_left (astep re_ok) ops (abs lg).
Proof. exact hrun_refines. Qed.

(* filtering follows the active specification: log() and enabled() consult nothing else (C02_route),
   and the gate is recomputed for it (C02_gate); here: the gate invariant along every history *)
Theorem C05_gate_follows :
  forall re_ok ops lg, gate_ok lg -> gate_ok (hrun re_ok lg ops).
Proof. intros re_ok ops lg G. exact (proj1 (hrun_gate re_ok ops lg G)). Qed.

(* pop re-activates precisely the specification that was active before the matching push, and restores the stack *)
Theorem C05_push_pop :
  forall re_ok lg s, abs (hrun re_ok lg [HPush s; HPop]) = abs lg.
Proof. intros. rewrite hrun_refines. unfold abs. reflexivity. Qed.

Theorem C05_parse_push_pop :
  forall re_ok lg str, abs (hrun re_ok lg [HParsePush str; HPop]) = abs lg
                       \/ (fst (parse re_ok str) <> [] /\ abs (hrun re_ok lg [HParsePush str]) = abs lg).
Proof.
  intros. rewrite !hrun_refines. unfold abs. cbn [fold_left astep].
  destruct (parse re_ok str) as [[|e es] s]; cbn [fst]; [left; reflexivity | right; split; [discriminate | reflexivity]].
Qed.

(* a rejected string leaves the active specification and the stack unchanged, and the call reports the error *)
Theorem C05_malformed_unchanged :
  forall re_ok lg str, fst (parse re_ok str) <> [] ->
    hstep re_ok lg (HParseSet str) = (lg, false) /\ hstep re_ok lg (HParsePush str) = (lg, false).
Proof.
  intros re_ok lg str H. cbn [hstep]. destruct (parse re_ok str) as [[|e es] s]; [exfalso; apply H; reflexivity | split; reflexivity].
Qed.

(* non-vacuity: a malformed string exists, and a nested history *)
Example C05_nonvacuous :
  fst (parse (fun _ => true) [97; 61; 120; 120]%N) <> []
  /\ abs (hrun (fun _ => true) (new_logger spec_off [] 0 0 false)
               [HParsePush [105; 110; 102; 111]%N; HParsePush [97; 61; 120; 120]%N; HPop]) = (spec_off, []).
Proof. split; [vm_compute; discriminate | vm_compute; reflexivity]. Qed.

Check C05_refines_stack. Check C05_push_pop. Check C05_malformed_unchanged.
Print Assumptions C05_refines_stack.
Print Assumptions C05_malformed_unchanged.
Print Assumptions C05_gate_follows.
