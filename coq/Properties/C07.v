(* C07 - cleanup.  Statements only: soundness of the executable oracles applied to the implementation's snapshots. *)
Require Import FL.Base.Bytes FL.Base.BytesFacts FL.Base.PathName FL.Fs.Fs FL.Names.FileSpec FL.Names.SortFacts FL.Fs.FsFacts FL.Flw.Model FL.Flw.ModelFacts FL.Flw.NumFs FL.Flw.CleanupFacts FL.Flw.CleanupCur FL.Oracles.ReaderOrder FL.Oracles.O_Stream FL.Oracles.OracleFacts.
From Coq Require Import Permutation Sorted.
Open Scope nat_scope.

(* what survives, read oldest to newest (archives decompressed) and followed by the current file, is a contiguous
   tail of the logged stream *)
Theorem C07_tail_sound : forall c logged l, oracle_tail c logged l = true -> exists pre, logged = pre ++ stream_of c l.
Proof. exact oracle_tail_sound. Qed.

(* the limits: at most the configured number of rotated plain files (with a direct naming the file being written
   is one of them, and the code keeps at least it), at most the configured number of archives, no unfinished archive *)
Theorem C07_limits_sound :
  forall c crit nam k pl gz l, c_rot c = Some (crit, nam, k) -> limits_of k (naming_writes_direct nam) = Some (pl, gz) ->
    oracle_limits c l = true ->
    count_kind c l 0 <= pl /\ count_kind c l 1 <= gz /\ count_kind c l 2 = 0.
Proof.
  intros c crit nam k pl gz l Hr Hl H. unfold oracle_limits in H. rewrite Hr, Hl in H.
  apply andb_prop in H. destruct H as [H H3]. apply andb_prop in H. destruct H as [H1 H2].
  apply Nat.leb_le in H1. apply Nat.leb_le in H2. apply Nat.eqb_eq in H3. auto.
Qed.

(* the order of the listing that the cleanup works on (newest first): it is a sorted permutation of the family's
   files under a total order of the names ... *)
Theorem C07_listing_sorted : forall sfx l,
  Permutation (sort_by_key sfx l) l /\ StronglySorted (fun x y => key_le sfx x y = true) (sort_by_key sfx l).
Proof. intros sfx l. split; [apply sort_by_key_perm | apply sort_by_key_strongly_sorted]. Qed.

(* ... in which, whatever the suffix (trc, txt, none), however many digits the restart counter has (9999, 10000), and
   whatever the fixed name part and the infix contain (even ".restart-": the counter is read behind the last one),
   a file written later under the same time stamp is listed before (= newer than) the earlier ones, compressed or not *)
Theorem C07_listing_restart_order : forall f sp sfx fixed i j k1 k2 (g1 g2 : bool),
  fsfx sp = sfx -> j <> [] ->
  strip_suffix (dot :: gz_sfx) (as_name sp fixed (Some j)) = None ->
  (k1 < k2)%N ->
  let n1 := add_gz g1 (as_name sp fixed (Some (restart_infix i k1))) in
  let n2 := add_gz g2 (as_name sp fixed (Some (restart_infix i k2))) in
  In n1 (related_files f sfx fixed) -> In n2 (related_files f sfx fixed) ->
  exists l1 l2 l3, related_files f sfx fixed = l1 ++ n2 :: l2 ++ n1 :: l3.
Proof. exact related_files_restart_order. Qed.

Theorem C07_listing_plain_last : forall sp sfx fixed i k (g0 g1 : bool) l,
  fsfx sp = sfx -> i <> [] ->
  strip_suffix (dot :: gz_sfx) (as_name sp fixed (Some i)) = None ->
  let n0 := add_gz g0 (as_name sp fixed (Some i)) in
  let n1 := add_gz g1 (as_name sp fixed (Some (restart_infix i k))) in
  In n0 l -> In n1 l ->
  exists l1 l2 l3, rev (sort_by_key sfx l) = l1 ++ n1 :: l2 ++ n0 :: l3.
Proof. exact listing_plain_last. Qed.

(* ... and in which the files of a Numbers / NumbersDirect family  <fixed>_r<number>  are listed by their NUMBER, the higher one
   first - however many digits the number has (r100000 before r99999: the sort key reads the number behind the last "_r" and
   compares it numerically; with an empty fixed name part the names are r<number> without "_", and the number is the one
   behind the leading "r"), whatever the suffix is and whatever the fixed name part contains; compressed or not *)
Theorem C07_listing_number_order : forall f sp sfx fixed j k1 k2 (g1 g2 : bool),
  fsfx sp = sfx -> j <> [] ->
  strip_suffix (dot :: gz_sfx) (as_name sp fixed (Some j)) = None ->
  (k1 < k2)%N ->
  let n1 := add_gz g1 (as_name sp fixed (Some (number_infix k1))) in
  let n2 := add_gz g2 (as_name sp fixed (Some (number_infix k2))) in
  In n1 (related_files f sfx fixed) -> In n2 (related_files f sfx fixed) ->
  exists l1 l2 l3, related_files f sfx fixed = l1 ++ n2 :: l2 ++ n1 :: l3.
Proof. exact related_files_number_order. Qed.


(* compression is lossless: the archive holds exactly the content of the file it replaces, the original is gone,
   every other file is untouched *)
Theorem C07_compress_lossless w n i :
  quiet w -> fs_wf (wfs w) -> lookup (wfs w) n = Some i -> not_dir (wfs w) (gz_name n) ->
  exists w' j,
    compress_file w n = (true, w') /\ same_env w w' /\ fs_wf (wfs w')
    /\ lookup (wfs w') n = None
    /\ lookup (wfs w') (gz_name n) = Some j
    /\ inode (wfs w') j = {| fdata := content (wfs w) i; fgz := 1%N;
                             fborn := match file_of (wfs w) (gz_name n) with Some fl => fborn fl | None => wnow w end;
                             fdir := false |}
    /\ (forall k, lookup (wfs w) (gz_name n) = Some k -> j = k)
    /\ (lookup (wfs w) (gz_name n) = None -> j = length (inodes (wfs w)))
    /\ (forall m, m <> n -> m <> gz_name n -> same_at (wfs w) (wfs w') m)
    /\ (forall k, k < length (inodes (wfs w)) -> k <> j -> inode (wfs w') k = inode (wfs w) k).
Proof. exact (compress_file_quiet w n i). Qed.

(* the cleanup proper (redundant archives first, then the loop over the newest-first listing), without faults: the first
   ll entries stay as they are, the next total - ll are archives afterwards (an archive stays, a plain file is replaced by
   its archive with the same content), everything beyond is removed, nothing else changes.
   For EVERY cur (the repaired code hands the current output file to the cleanup, cur = Some path, with the direct namings;
   None otherwise): the entry equal to cur is skipped - it stays as it is wherever the listing puts it, and its position
   still counts.  (is_cur None n = false and not_gzc None n = not_gz n: for cur = None this is the statement as it was.) *)
Theorem C07_cleanup_keeps_newest w files ll total cur :
  quiet w -> fs_wf (wfs w) -> NoDup files -> ~ In [] files -> ll <= total ->
  (forall n, In n files -> lookup (wfs w) n <> None) ->
  (forall n, In n files -> not_dir (wfs w) (gz_name n)) ->
  let red := redundant_gz files in
  let files' := without red files in
  exists w1 w', remove_redundant w red files = (true, w1, files')
    /\ cleanup_loop w1 files' 0 ll total cur = (true, w') /\ same_env w w' /\ fs_wf (wfs w')
    (* a redundant archive is gone - unless its original is compressed now, which creates it anew (see the zone) *)
    /\ (forall n, In n red -> ~ In n (map gz_name (filter (not_gzc cur) (zone_part ll total files'))) -> lookup (wfs w') n = None)
    /\ (forall n, In n (keep_part ll files') -> same_at (wfs w) (wfs w') n)
    /\ (forall n, In n (zone_part ll total files') ->
          if ext_is n gz_sfx || is_cur cur n then same_at (wfs w) (wfs w') n else archived (wfs w) (wfs w') n)
    /\ (forall n, In n (gone_part total files') ->
          if is_cur cur n then same_at (wfs w) (wfs w') n else lookup (wfs w') n = None)
    /\ length (keep_part ll files') <= ll /\ length (zone_part ll total files') <= total - ll
    /\ (forall m, ~ In m files -> ~ In m (map gz_name (filter (not_gzc cur) (zone_part ll total files'))) ->
          same_at (wfs w) (wfs w') m)
    (* the current output file: untouched wherever it is listed *)
    /\ (forall p, cur = Some p -> In p files' -> same_at (wfs w) (wfs w') p).
Proof. exact (cleanup_after_listingc w files ll total cur). Qed.

Require Import FL.Flw.Run FL.Flw.NumInv FL.Flw.NumRun FL.Flw.NumTheorems FL.Flw.NumCleanupNames FL.Flw.NumCleanupStep FL.Flw.NumCleanupRun FL.Flw.NumCleanup FL.Oracles.O_Flw.
Local Open Scope nat_scope.
(* END TO END, Numbers naming with KeepLogFiles / KeepCompressedFiles / KeepLogAndCompressedFiles, cleanup in the logging thread, EVERY history of
   one run: in the end exactly rCURRENT, the newest n closed files (plain, as they were closed) and the next m (complete archives of exactly what the
   file held) exist; everything older is gone; what survives, read by number and then rCURRENT, is a suffix of what was written
   (side condition: the suffix does not end in .gz - shown necessary by counterexamples in Flw/NumCleanup.v.  Since the repair of the
   listing order there is NO BOUND on the number of rotations, with or without a fixed name part) *)
Theorem C07_numbers_cleanup c crit k n m t0 off ops closed cur :
  numkcfg c crit k -> klim k = Some (n, m) -> Forall basic_op ops ->
  sfx_ok (c_spec c) ->
  a_run None ops (snd (run (fst (step (sys0 t0 off) (OStart c))) ops)) = Some (closed, cur) ->
  let f := wfs (s_w (fst (run (sys0 t0 off) (OStart c :: ops ++ [OStop])))) in
  let L := length closed in let lo := L - (n + m) in let mid := L - n in
  (* what was written *)
  concat closed ++ cur = written ops
  (* exactly these names exist, each once *)
  /\ (forall x, (exists j, lookup f x = Some j) <->
        x = cname c \/ (exists i, mid <= i < L /\ x = rname c i) \/ (exists i, lo <= i < mid /\ x = gname c i))
  /\ NoDup (dir_names f)
  (* (a) the limits: at most n plain rotated files, at most m archives; the next cleanup would see them like this *)
  /\ L - mid <= n /\ mid - lo <= m
  /\ (forall off', list_log_gz off' (c_spec c) (fixed0 c) f IFNum = Some (listing c lo mid L))
  (* the newest n closed files are there as they were closed *)
  /\ (forall i, mid <= i < L -> lookup f (gname c i) = None /\
        exists fl, file_of f (rname c i) = Some fl /\ fdata fl = nth i closed [] /\ fgz fl = 0%N /\ fdir fl = false)
  (* (c) the next m are complete archives of what the file held when it was closed; the original is gone *)
  /\ (forall i, lo <= i < mid -> lookup f (rname c i) = None /\
        exists fl, file_of f (gname c i) = Some fl /\ fdata fl = nth i closed [] /\ fgz fl = 1%N /\ fdir fl = false)
  (* older files are gone *)
  /\ (forall i, i < lo -> lookup f (rname c i) = None /\ lookup f (gname c i) = None)
  (* (b) the survivors, read by index, then rCURRENT: a suffix of what was written *)
  /\ written ops = concat (firstn lo closed) ++ concat (map (fun i => data_at f (entry c mid i)) (seq lo (L - lo))) ++ cur
  (* (d) the current file is plain and holds what it would hold without cleanup *)
  /\ (exists fl, file_of f (cname c) = Some fl /\ fdata fl = cur /\ fgz fl = 0%N /\ fdir fl = false).
Proof. exact (numbers_cleanup_properties c crit k n m t0 off ops closed cur). Qed.

(* ... where `closed`, `cur` are what the same history leaves without cleanup *)
Theorem C07_numbers_cleanup_vs_never c crit k t0 off ops :
  numkcfg c crit k -> Forall basic_op ops ->
  let a := a_run None ops (snd (run (fst (step (sys0 t0 off) (OStart c))) ops)) in
  kside c k (nclosed a) ->
  let f0 := wfs (s_w (fst (run (sys0 t0 off) (OStart (never_cfg c crit) :: ops ++ [OStop])))) in
  match a with
  | None => names f0 = []
  | Some (closed, cur) => reader_view c f0 closed cur
  end.
Proof. exact (numbers_cleanup_vs_never c crit k t0 off ops). Qed.

Require Import FL.Flw.WorldPar FL.Flw.LinkSim FL.Flw.BgSim.
(* the same for cleanup in the BACKGROUND thread, under the model's / harness's scheduling (each request is finished before the next operation) *)
Theorem C07_numbers_cleanup_bg c crit k n m t0 off ops closed cur :
  numkcfg (nobg c) crit k -> klim k = Some (n, m) -> Forall basic_op ops ->
  sfx_ok (c_spec c) ->
  a_run None ops (snd (run (fst (step (sys0 t0 off) (OStart (nobg c)))) ops)) = Some (closed, cur) ->
  let f := wfs (s_w (fst (run (sys0 t0 off) (OStart c :: ops ++ [OStop])))) in
  let L := length closed in let lo := L - (n + m) in let mid := L - n in
  concat closed ++ cur = written ops
  /\ (forall x, (exists j, lookup f x = Some j) <->
        x = cname c \/ (exists i, mid <= i < L /\ x = rname c i) \/ (exists i, lo <= i < mid /\ x = gname c i))
  /\ NoDup (dir_names f)
  /\ L - mid <= n /\ mid - lo <= m
  /\ (forall off', list_log_gz off' (c_spec c) (fixed0 c) f IFNum = Some (listing c lo mid L))
  /\ (forall i, mid <= i < L -> lookup f (gname c i) = None /\
        exists fl, file_of f (rname c i) = Some fl /\ fdata fl = nth i closed [] /\ fgz fl = 0%N /\ fdir fl = false)
  /\ (forall i, lo <= i < mid -> lookup f (rname c i) = None /\
        exists fl, file_of f (gname c i) = Some fl /\ fdata fl = nth i closed [] /\ fgz fl = 1%N /\ fdir fl = false)
  /\ (forall i, i < lo -> lookup f (rname c i) = None /\ lookup f (gname c i) = None)
  /\ written ops = concat (firstn lo closed) ++ concat (map (fun i => data_at f (entry c mid i)) (seq lo (L - lo))) ++ cur
  /\ (exists fl, file_of f (cname c) = Some fl /\ fdata fl = cur /\ fgz fl = 0%N /\ fdir fl = false).
Proof. exact (numbers_cleanup_bg c crit k n m t0 off ops closed cur). Qed.

Check C07_numbers_cleanup. Check C07_numbers_cleanup_vs_never.
Print Assumptions C07_numbers_cleanup.
Print Assumptions C07_numbers_cleanup_vs_never.
Check C07_compress_lossless. Check C07_cleanup_keeps_newest.
Print Assumptions C07_compress_lossless.
Print Assumptions C07_cleanup_keeps_newest.
Check C07_tail_sound. Check C07_limits_sound. Check C07_listing_sorted. Check C07_listing_restart_order. Check C07_listing_plain_last.
Print Assumptions C07_listing_sorted.
Print Assumptions C07_listing_restart_order.
Print Assumptions C07_listing_plain_last.
Check C07_listing_number_order.
Print Assumptions C07_listing_number_order.
Print Assumptions C07_tail_sound.
Print Assumptions C07_limits_sound.
Check C07_numbers_cleanup_bg.
Print Assumptions C07_numbers_cleanup_bg.

(* END TO END, NumbersDirect naming (no rCURRENT: the file being written is r<L>, L = number of closed files).  The file being
   written is part of the listing the cleanup works on and COUNTS for the first limit; the code raises a first limit of 0 to 1
   (and, repaired, skips the file it is told to be the current one: C07_cleanup_spares_current).  (n, m) = klimd k = (max 1 n0, m) for KeepLogAndCompressedFiles(n0, m) (KeepLogFiles(n0): m = 0,
   KeepCompressedFiles(m): n0 = 0): in the end exactly the current file and the newest n - 1 closed files (plain, as they
   were closed) and the next m (complete archives of exactly what the file held) exist; everything older is gone; the current
   file is never compressed or removed; what survives, read by number, is a suffix of what was written (side conditions: the
   suffix does not end in .gz - shown necessary in Flw/NumDCleanup.v; no bound on the index of the current file any more) *)
Require Import FL.Flw.NumDInv FL.Flw.NumDRun FL.Flw.NumDCleanupStep FL.Flw.NumDCleanupRun FL.Flw.NumDCleanup FL.Flw.NumKillRestart.
Theorem C07_numbersdirect_cleanup c crit k n m t0 off ops closed cur :
  numdkcfg c crit k -> klimd k = Some (n, m) -> Forall basic_op ops ->
  sfx_ok (c_spec c) ->
  a_run None ops (snd (run (fst (step (sys0 t0 off) (OStart c))) ops)) = Some (closed, cur) ->
  let f := wfs (s_w (fst (run (sys0 t0 off) (OStart c :: ops ++ [OStop])))) in
  let L := length closed in let lo := S L - (n + m) in let mid := S L - n in
  concat closed ++ cur = written ops
  /\ (forall x, (exists j, lookup f x = Some j) <->
        (exists i, mid <= i <= L /\ x = rname c i) \/ (exists i, lo <= i < mid /\ x = gname c i))
  /\ NoDup (dir_names f)
  /\ lookup f (cname c) = None
  /\ 1 <= n /\ mid <= L /\ S L - mid <= n /\ mid - lo <= m
  /\ (forall off', list_log_gz off' (c_spec c) (fixed0 c) f IFNum = Some (listing c lo mid (S L)))
  /\ (forall off', get_highest_index off' (c_spec c) (fixed0 c) f <> None)
  /\ (forall i, mid <= i < L -> lookup f (gname c i) = None /\
        exists fl, file_of f (rname c i) = Some fl /\ fdata fl = nth i closed [] /\ fgz fl = 0%N /\ fdir fl = false)
  /\ (forall i, lo <= i < mid -> lookup f (rname c i) = None /\
        exists fl, file_of f (gname c i) = Some fl /\ fdata fl = nth i closed [] /\ fgz fl = 1%N /\ fdir fl = false)
  /\ (forall i, i < lo -> lookup f (rname c i) = None /\ lookup f (gname c i) = None)
  /\ written ops = concat (firstn lo closed) ++ concat (map (fun i => data_at f (entry c mid i)) (seq lo (S L - lo)))
  /\ lookup f (gname c L) = None
  /\ (exists fl, file_of f (rname c L) = Some fl /\ fdata fl = cur /\ fgz fl = 0%N /\ fdir fl = false).
Proof. exact (numbersdirect_cleanup c crit k n m t0 off ops closed cur). Qed.

(* ... where `closed`, `cur` are what the same history leaves without cleanup: the files r<0> .. r<L> *)
Theorem C07_numbersdirect_cleanup_vs_never c crit k t0 off ops :
  numdkcfg c crit k -> Forall basic_op ops ->
  let a := a_run None ops (snd (run (fst (step (sys0 t0 off) (OStart c))) ops)) in
  dside c k (nclosed a) ->
  let f0 := wfs (s_w (fst (run (sys0 t0 off) (OStart (never_cfg_d c crit) :: ops ++ [OStop])))) in
  numdcfg (never_cfg_d c crit) crit
  /\ match a with
     | None => names f0 = []
     | Some (closed, cur) => direct_view c f0 (closed ++ [cur])
     end.
Proof. exact (numbersdirect_cleanup_vs_never c crit k t0 off ops). Qed.

(* ... and no operation of the history fails or panics *)
Theorem C07_numbersdirect_cleanup_no_panic c crit k t0 off ops :
  numdkcfg c crit k -> Forall basic_op ops ->
  dside c k (nclosed (a_run None ops (snd (run (fst (step (sys0 t0 off) (OStart c))) ops)))) ->
  Forall obs_ok (snd (run (sys0 t0 off) (OStart c :: ops ++ [OStop]))).
Proof. exact (numbersdirect_cleanup_no_panic c crit k t0 off ops). Qed.

Check C07_numbersdirect_cleanup. Check C07_numbersdirect_cleanup_vs_never. Check C07_numbersdirect_cleanup_no_panic.
Print Assumptions C07_numbersdirect_cleanup.
Print Assumptions C07_numbersdirect_cleanup_vs_never.
Print Assumptions C07_numbersdirect_cleanup_no_panic.

(* ====================================================================================================================
   THE TIME-STAMP NAMINGS.  The files are named by keys (second, position within the second): r<time stamp>,
   r<time stamp>.restart-0000, ...; `keys` lists the keys in the order of writing (keys_ok: seconds non-decreasing, within a
   second the positions 0, 1, 2, ..).  Hypotheses as for the stream theorems (C01): tag_ok, the years 1970..9999, a clock
   that does not go backwards (tick_ok); and as for the number namings: the suffix does not end in .gz (sfx_ok). *)
Require Import FL.Time.Civil FL.Time.TsFormat FL.Flw.TsTime FL.Flw.TsNames FL.Flw.TsInv FL.Flw.TsRun FL.Flw.TsTheorems FL.Flw.GenCleanup FL.Flw.TsCleanupNames
  FL.Flw.TsdCleanupRun FL.Flw.TsdCleanup FL.Flw.TsCleanupRun FL.Flw.TsCleanup.

(* the listing that the cleanup works on orders the names of the family - plain or archive, mixed - by their KEYS: for
   different seconds by the time-stamp text, within a second by the restart counter *)
Theorem C07_listing_key_order c e k1 k2 (g1 g2 : bool) :
  sfx_ok (c_spec c) -> in_years e (fst k1) -> in_years e (fst k2) -> klt k1 k2 ->
  key_le (fsfx (c_spec c)) (add_gz g1 (kname c e k1)) (add_gz g2 (kname c e k2)) = true.
Proof. exact (key_le_kname c e k1 k2 g1 g2). Qed.

(* ... so on a directory that holds the plain files of the keys at the positions mid <= i < L and the archives of those at
   lo <= i < mid (and possibly rCURRENT) the listing is exactly: NEWEST KEY FIRST the plain files, then the archives *)
Theorem C07_listing_ts c e off f (keys : list key) closed lo mid :
  sfx_ok (c_spec c) -> keys_ok keys -> (forall k, In k keys -> in_years e (fst k)) -> length keys = length closed ->
  gdir (tname c e keys) (cname c) f closed lo mid ->
  list_log_gz off (c_spec c) (fixed0 c) f (IFTs std_fmt)
  = Some (rev (map (tname c e keys) (seq mid (length closed - mid))) ++ rev (map (gzf (tname c e keys)) (seq lo (mid - lo)))).
Proof. exact (list_log_gz_ts c e off f keys closed lo mid). Qed.

(* END TO END, TimestampsDirect naming (no rCURRENT: the file being written carries the newest key, L = number of closed files).
   As for NumbersDirect naming the file being written is part of the listing and COUNTS for the first limit; the code raises a
   first limit of 0 to 1 (and, repaired, skips the file it is told to be the current one): (n, m) = klimd k = (max 1 n0, m).  In the end exactly the current file
   and the newest n - 1 closed files (plain, as they were closed) and the next m (complete archives of exactly what the file
   held) exist; everything older is gone; the current file is never compressed or removed; what survives, read in key order, is
   a suffix of what was written.  (tick_ok is needed for the retention statement only: with a clock that goes backwards the
   limits count positions of a listing that is no longer in the order of writing.  The file that is being written is spared
   WHATEVER the clock does - the repaired cleanup is told which file it is and skips it: Flw/CurrentSpared.v,
   C07_current_never_cleaned below; this was the finding clock_backwards_current_removed, now the positive Example
   Flw/TsdCleanup.clock_backwards_current_spared.) *)
Theorem C07_timestampsdirect_cleanup c crit k n m t0 off ops closed cur :
  tsdkcfg c crit k -> klimd k = Some (n, m) -> tag_ok c -> sfx_ok (c_spec c) ->
  Forall basic_op ops -> Forall tick_ok ops ->
  (0 <= t0 + ts_e c off)%Z -> (t0 + elapsed ops + ts_e c off < sec_max)%Z -> (N.of_nat (length ops) <= usize_max)%N ->
  a_run None ops (snd (run (fst (step (sys0 t0 off) (OStart c))) ops)) = Some (closed, cur) ->
  let f := wfs (s_w (fst (run (sys0 t0 off) (OStart c :: ops ++ [OStop])))) in
  let L := length closed in let lo := S L - (n + m) in let mid := S L - n in
  concat closed ++ cur = written ops
  /\ exists keys : list key,
       let K i := kname c (ts_e c off) (nth i keys kd) in
       let G i := gz_name (K i) in
       length keys = S L /\ keys_ok keys /\ (forall key, In key keys -> (t0 <= fst key <= t0 + elapsed ops)%Z)
       /\ (forall x, (exists j, lookup f x = Some j) <->
             (exists i, mid <= i <= L /\ x = K i) \/ (exists i, lo <= i < mid /\ x = G i))
       /\ NoDup (dir_names f)
       /\ lookup f (cname c) = None
       /\ 1 <= n /\ mid <= L /\ S L - mid <= n /\ mid - lo <= m
       /\ (forall off', list_log_gz off' (c_spec c) (fixed0 c) f (IFTs std_fmt)
                        = Some (rev (map K (seq mid (S L - mid))) ++ rev (map G (seq lo (mid - lo)))))
       /\ (forall i, mid <= i < L -> lookup f (G i) = None /\
             exists fl, file_of f (K i) = Some fl /\ fdata fl = nth i closed [] /\ fgz fl = 0%N /\ fdir fl = false)
       /\ (forall i, lo <= i < mid -> lookup f (K i) = None /\
             exists fl, file_of f (G i) = Some fl /\ fdata fl = nth i closed [] /\ fgz fl = 1%N /\ fdir fl = false)
       /\ (forall i, i < lo -> lookup f (K i) = None /\ lookup f (G i) = None)
       /\ written ops = concat (firstn lo closed) ++ concat (map (fun i => data_at f (if mid <=? i then K i else G i)) (seq lo (S L - lo)))
       /\ lookup f (G L) = None
       /\ (exists fl, file_of f (K L) = Some fl /\ fdata fl = cur /\ fgz fl = 0%N /\ fdir fl = false).
Proof. exact (timestampsdirect_cleanup c crit k n m t0 off ops closed cur). Qed.

Theorem C07_timestampsdirect_cleanup_no_panic c crit k t0 off ops :
  tsdkcfg c crit k -> tag_ok c -> sfx_ok (c_spec c) -> Forall basic_op ops -> Forall tick_ok ops ->
  (0 <= t0 + ts_e c off)%Z -> (t0 + elapsed ops + ts_e c off < sec_max)%Z -> (N.of_nat (length ops) <= usize_max)%N ->
  Forall obs_ok (snd (run (sys0 t0 off) (OStart c :: ops ++ [OStop]))).
Proof. exact (timestampsdirect_cleanup_no_panic c crit k t0 off ops). Qed.

(* END TO END, Timestamps naming (rCURRENT + closed files named by the second in which they were started, L = number of closed
   files; rCURRENT is not listed and does not count): (n, m) = klim k.  In the end exactly rCURRENT, the newest n closed files
   (plain) and the next m (complete archives) exist; everything older is gone; what survives, read in key order and then
   rCURRENT, is a suffix of what was written.  (With n + m = 0 no name but rCURRENT is claimed; the names of the closed files
   are then used again, Flw/TsCleanup.names_reused.) *)
Theorem C07_timestamps_cleanup c crit k n m t0 off ops closed cur :
  tskcfg c crit k -> klim k = Some (n, m) -> tag_ok c -> sfx_ok (c_spec c) ->
  Forall basic_op ops -> Forall tick_ok ops ->
  (0 <= t0 + ts_e c off)%Z -> (t0 + elapsed ops + ts_e c off < sec_max)%Z -> (N.of_nat (length ops) <= usize_max)%N ->
  a_run None ops (snd (run (fst (step (sys0 t0 off) (OStart c))) ops)) = Some (closed, cur) ->
  let f := wfs (s_w (fst (run (sys0 t0 off) (OStart c :: ops ++ [OStop])))) in
  let L := length closed in let lo := L - (n + m) in let mid := L - n in
  concat closed ++ cur = written ops
  /\ exists keys : list key,
       let K i := kname c (ts_e c off) (nth i keys kd) in
       let G i := gz_name (K i) in
       length keys = L /\ keys_ok keys /\ (forall key, In key keys -> (t0 <= fst key <= t0 + elapsed ops)%Z)
       /\ (forall x, (exists j, lookup f x = Some j) <->
             x = cname c \/ (exists i, mid <= i < L /\ x = K i) \/ (exists i, lo <= i < mid /\ x = G i))
       /\ NoDup (dir_names f)
       /\ L - mid <= n /\ mid - lo <= m
       /\ (forall off', list_log_gz off' (c_spec c) (fixed0 c) f (IFTs std_fmt)
                        = Some (rev (map K (seq mid (L - mid))) ++ rev (map G (seq lo (mid - lo)))))
       /\ (forall i, mid <= i < L -> lookup f (G i) = None /\
             exists fl, file_of f (K i) = Some fl /\ fdata fl = nth i closed [] /\ fgz fl = 0%N /\ fdir fl = false)
       /\ (forall i, lo <= i < mid -> lookup f (K i) = None /\
             exists fl, file_of f (G i) = Some fl /\ fdata fl = nth i closed [] /\ fgz fl = 1%N /\ fdir fl = false)
       /\ (forall i, i < lo -> lookup f (K i) = None /\ lookup f (G i) = None)
       /\ written ops = concat (firstn lo closed) ++ concat (map (fun i => data_at f (if mid <=? i then K i else G i)) (seq lo (L - lo))) ++ cur
       /\ (exists fl, file_of f (cname c) = Some fl /\ fdata fl = cur /\ fgz fl = 0%N /\ fdir fl = false).
Proof. exact (timestamps_cleanup c crit k n m t0 off ops closed cur). Qed.

Theorem C07_timestamps_cleanup_no_panic c crit k t0 off ops :
  tskcfg c crit k -> tag_ok c -> sfx_ok (c_spec c) -> Forall basic_op ops -> Forall tick_ok ops ->
  (0 <= t0 + ts_e c off)%Z -> (t0 + elapsed ops + ts_e c off < sec_max)%Z -> (N.of_nat (length ops) <= usize_max)%N ->
  Forall obs_ok (snd (run (sys0 t0 off) (OStart c :: ops ++ [OStop]))).
Proof. exact (timestamps_cleanup_no_panic c crit k t0 off ops). Qed.

(* ... and the READER (Oracles/ReaderOrder.v: time stamp, then restart counter, rCURRENT last, archives decompressed) finds
   the surviving files in the order in which they were written; the executable oracles of this property - the ones that the
   harness applies to the snapshots of the implementation, sound by C07_tail_sound / C07_limits_sound - accept the snapshot
   that the model leaves *)
Require Import FL.Flw.NumRestart FL.Flw.TsCleanupReader.
Theorem C07_timestampsdirect_oracles c crit k n m t0 off ops closed cur :
  tsdkcfg c crit k -> klimd k = Some (n, m) -> tag_ok c -> sfx_ok (c_spec c) ->
  Forall basic_op ops -> Forall tick_ok ops ->
  (0 <= t0 + ts_e c off)%Z -> (t0 + elapsed ops + ts_e c off < sec_max)%Z -> (N.of_nat (length ops) <= usize_max)%N ->
  a_run None ops (snd (run (fst (step (sys0 t0 off) (OStart c))) ops)) = Some (closed, cur) ->
  let x := fst (run (sys0 t0 off) (OStart c :: ops ++ [OStop])) in
  family_in_order c (snap_of x) = skipn (S (length closed) - (n + m)) (closed ++ [cur])
  /\ concat closed ++ cur = written ops
  /\ oracle_tail c (written ops) (snap_of x) = true
  /\ oracle_limits c (snap_of x) = true
  /\ oracle_current_plain c (snap_of x) = true.
Proof. exact (timestampsdirect_cleanup_reader c crit k n m t0 off ops closed cur). Qed.

Theorem C07_timestamps_oracles c crit k n m t0 off ops closed cur :
  tskcfg c crit k -> klim k = Some (n, m) -> tag_ok c -> sfx_ok (c_spec c) ->
  Forall basic_op ops -> Forall tick_ok ops ->
  (0 <= t0 + ts_e c off)%Z -> (t0 + elapsed ops + ts_e c off < sec_max)%Z -> (N.of_nat (length ops) <= usize_max)%N ->
  a_run None ops (snd (run (fst (step (sys0 t0 off) (OStart c))) ops)) = Some (closed, cur) ->
  let x := fst (run (sys0 t0 off) (OStart c :: ops ++ [OStop])) in
  family_in_order c (snap_of x) = skipn (length closed - (n + m)) closed ++ [cur]
  /\ concat closed ++ cur = written ops
  /\ oracle_tail c (written ops) (snap_of x) = true
  /\ oracle_limits c (snap_of x) = true
  /\ oracle_current_plain c (snap_of x) = true.
Proof. exact (timestamps_cleanup_reader c crit k n m t0 off ops closed cur). Qed.

(* ... where `closed`, `cur` are what the same history leaves without cleanup: all files, plain, named by the keys *)
Theorem C07_timestampsdirect_cleanup_vs_never c crit k t0 off ops :
  tsdkcfg c crit k -> tag_ok c -> sfx_ok (c_spec c) -> Forall basic_op ops -> Forall tick_ok ops ->
  (0 <= t0 + ts_e c off)%Z -> (t0 + elapsed ops + ts_e c off < sec_max)%Z -> (N.of_nat (length ops) <= usize_max)%N ->
  let a := a_run None ops (snd (run (fst (step (sys0 t0 off) (OStart c))) ops)) in
  let f0 := wfs (s_w (fst (run (sys0 t0 off) (OStart (never_cfg_t c crit) :: ops ++ [OStop])))) in
  TsdInv.tsdcfg (never_cfg_t c crit) crit
  /\ exists keys, TsdRun.tsd_view (never_cfg_t c crit) (ts_e c off) f0 keys (files_of a) /\ keys_ok keys
                  /\ (forall key, In key keys -> (t0 <= fst key <= t0 + elapsed ops)%Z).
Proof. exact (timestampsdirect_cleanup_vs_never c crit k t0 off ops). Qed.

Theorem C07_timestamps_cleanup_vs_never c crit k t0 off ops :
  tskcfg c crit k -> tag_ok c -> sfx_ok (c_spec c) -> Forall basic_op ops -> Forall tick_ok ops ->
  (0 <= t0 + ts_e c off)%Z -> (t0 + elapsed ops + ts_e c off < sec_max)%Z -> (N.of_nat (length ops) <= usize_max)%N ->
  let a := a_run None ops (snd (run (fst (step (sys0 t0 off) (OStart c))) ops)) in
  let f0 := wfs (s_w (fst (run (sys0 t0 off) (OStart (never_cfg_s c crit) :: ops ++ [OStop])))) in
  tscfg (never_cfg_s c crit) crit
  /\ match a with
     | None => names f0 = []
     | Some (closed, cur) => exists keys, ts_view (never_cfg_s c crit) (ts_e c off) f0 keys closed cur /\ keys_ok keys
                                          /\ (forall key, In key keys -> (t0 <= fst key <= t0 + elapsed ops)%Z)
     end.
Proof. exact (timestamps_cleanup_vs_never c crit k t0 off ops). Qed.

Check C07_listing_key_order. Check C07_listing_ts.
Check C07_timestampsdirect_cleanup. Check C07_timestampsdirect_cleanup_no_panic.
Check C07_timestamps_cleanup. Check C07_timestamps_cleanup_no_panic.
Print Assumptions C07_listing_key_order.
Print Assumptions C07_listing_ts.
Print Assumptions C07_timestampsdirect_cleanup.
Print Assumptions C07_timestampsdirect_cleanup_no_panic.
Print Assumptions C07_timestamps_cleanup.
Print Assumptions C07_timestamps_cleanup_no_panic.
Check C07_timestampsdirect_oracles. Check C07_timestamps_oracles.
Print Assumptions C07_timestampsdirect_oracles.
Print Assumptions C07_timestamps_oracles.
Check C07_timestampsdirect_cleanup_vs_never. Check C07_timestamps_cleanup_vs_never.
Print Assumptions C07_timestampsdirect_cleanup_vs_never.
Print Assumptions C07_timestamps_cleanup_vs_never.


(* the same for cleanup in the BACKGROUND thread (Flw/NumDBg.v), under the model's / harness's scheduling (each request is
   finished before the next operation).  With a direct naming the background cleanup lists a directory that contains the
   file being written; under this scheduling the request is worked off in the same world as in the synchronous case, and the
   run goes through THE SAME WORLDS with the same observations (C07_bg_worlds_numbersdirect_cleanup): the file being written
   is never compressed or removed.  Nothing is said about a cleanup that runs while the logging thread writes *)
Require Import FL.Flw.NumDBg.
Theorem C07_bg_worlds_numbersdirect_cleanup c crit k t0 off ops :
  numdkcfg (nobg c) crit k -> Forall basic_op ops ->
  dside (nobg c) k (nclosed (a_run None ops (snd (run (fst (step (sys0 t0 off) (OStart (nobg c)))) ops)))) ->
  let rb := run (sys0 t0 off) (OStart c :: ops) in
  let rn := run (sys0 t0 off) (OStart (nobg c) :: ops) in
  let rb' := run (sys0 t0 off) (OStart c :: ops ++ [OStop]) in
  let rn' := run (sys0 t0 off) (OStart (nobg c) :: ops ++ [OStop]) in
  (s_w (fst rb) = s_w (fst rn) /\ snd rb = snd rn) /\ (s_w (fst rb') = s_w (fst rn') /\ snd rb' = snd rn').
Proof. exact (bg_worlds_numbersdirect_cleanup c crit k t0 off ops). Qed.

Theorem C07_numbersdirect_cleanup_bg c crit k n m t0 off ops closed cur :
  numdkcfg (nobg c) crit k -> klimd k = Some (n, m) -> Forall basic_op ops ->
  sfx_ok (c_spec c) ->
  a_run None ops (snd (run (fst (step (sys0 t0 off) (OStart (nobg c)))) ops)) = Some (closed, cur) ->
  let f := wfs (s_w (fst (run (sys0 t0 off) (OStart c :: ops ++ [OStop])))) in
  let L := length closed in let lo := S L - (n + m) in let mid := S L - n in
  concat closed ++ cur = written ops
  /\ (forall x, (exists j, lookup f x = Some j) <->
        (exists i, mid <= i <= L /\ x = rname c i) \/ (exists i, lo <= i < mid /\ x = gname c i))
  /\ NoDup (dir_names f)
  /\ lookup f (cname c) = None
  /\ 1 <= n /\ mid <= L /\ S L - mid <= n /\ mid - lo <= m
  /\ (forall off', list_log_gz off' (c_spec c) (fixed0 c) f IFNum = Some (listing c lo mid (S L)))
  /\ (forall off', get_highest_index off' (c_spec c) (fixed0 c) f <> None)
  /\ (forall i, mid <= i < L -> lookup f (gname c i) = None /\
        exists fl, file_of f (rname c i) = Some fl /\ fdata fl = nth i closed [] /\ fgz fl = 0%N /\ fdir fl = false)
  /\ (forall i, lo <= i < mid -> lookup f (rname c i) = None /\
        exists fl, file_of f (gname c i) = Some fl /\ fdata fl = nth i closed [] /\ fgz fl = 1%N /\ fdir fl = false)
  /\ (forall i, i < lo -> lookup f (rname c i) = None /\ lookup f (gname c i) = None)
  /\ written ops = concat (firstn lo closed) ++ concat (map (fun i => data_at f (entry c mid i)) (seq lo (S L - lo)))
  /\ lookup f (gname c L) = None
  /\ (exists fl, file_of f (rname c L) = Some fl /\ fdata fl = cur /\ fgz fl = 0%N /\ fdir fl = false).
Proof. exact (numbersdirect_cleanup_bg c crit k n m t0 off ops closed cur). Qed.

Theorem C07_numbersdirect_cleanup_stream_bg c crit k t0 off ops :
  numdkcfg (nobg c) crit k -> Forall basic_op ops ->
  let a := a_run None ops (snd (run (fst (step (sys0 t0 off) (OStart (nobg c)))) ops)) in
  dside (nobg c) k (nclosed a) ->
  let r := run (sys0 t0 off) (OStart c :: ops ++ [OStop]) in
  let f := wfs (s_w (fst r)) in
  flat a = written ops
  /\ match a with
     | None => names f = []
     | Some (closed, cur) => dkreader_view c f closed cur (d_lo k (length closed)) (d_mid k (length closed))
     end
  /\ Forall obs_ok (snd r).
Proof. exact (numbersdirect_cleanup_stream_bg c crit k t0 off ops). Qed.

Theorem C07_numbersdirect_cleanup_no_panic_bg c crit k t0 off ops :
  numdkcfg (nobg c) crit k -> Forall basic_op ops ->
  dside (nobg c) k (nclosed (a_run None ops (snd (run (fst (step (sys0 t0 off) (OStart (nobg c)))) ops)))) ->
  Forall obs_ok (snd (run (sys0 t0 off) (OStart c :: ops ++ [OStop]))).
Proof. exact (numbersdirect_cleanup_no_panic_bg c crit k t0 off ops). Qed.

Check C07_bg_worlds_numbersdirect_cleanup. Check C07_numbersdirect_cleanup_bg. Check C07_numbersdirect_cleanup_stream_bg.
Check C07_numbersdirect_cleanup_no_panic_bg.
Print Assumptions C07_bg_worlds_numbersdirect_cleanup.
Print Assumptions C07_numbersdirect_cleanup_bg.
Print Assumptions C07_numbersdirect_cleanup_stream_bg.
Print Assumptions C07_numbersdirect_cleanup_no_panic_bg.
(* non-vacuity (c_bg = true): NumDBg.exdb_side_by_side, exdb_prefixes (every prefix of a history with a buffered writer),
   exdb_instance, exdb_instance_names; where the variants differ (a failing cleanup): exdb_fault *)
Check exdb_side_by_side.
Check exdb_instance_names.

(* ------------------------------------------------------------------ THE CURRENT OUTPUT FILE IS NEVER CLEANED UP *)
(* (the repaired cleanup, list_and_cleanup.rs: remove_or_compress_too_old_logfiles_impl(.., o_current); model: cleanup_impl
   with cur : option bytes in the place of direct : bool.  Flw/CurrentSpared.v) *)
Require Import FL.Flw.CurrentSpared.

(* EVERY world - fault oracle, kill counter, whatever the directory holds, whatever the order of the listing and the limits
   are, whatever the result is -: the file p that the cleanup is told to be the current output file (cur = Some p) is, if it
   exists, the same file afterwards (same inode, same content, same kind: a plain file is not compressed).  The name must not
   end in ".gz" (necessary: CurrentSpared.archive_name_not_spared). *)
Theorem C07_cleanup_spares_current c w k flt p i r w' :
  fs_wf (wfs w) -> strip_suffix (dot :: gz_sfx) p = None ->
  lookup (wfs w) p = Some i ->
  cleanup_impl c w k flt (Some p) = (r, w') ->
  fs_wf (wfs w') /\ lookup (wfs w') p = Some i /\ inode (wfs w') i = inode (wfs w) i.
Proof. exact (cleanup_spares_current c w k flt p i r w'). Qed.

(* EVERY history of basic operations of a TimestampsDirect writer with a cleanup strategy, the clock anywhere in the years
   1970..9999 at every instant - NO tick_ok: it may be set back -: after every operation (the history is arbitrary: after every
   prefix, CurrentSpared.timestampsdirect_current_never_cleaned_prefix) the file the writer writes to exists under the name
   and with the inode the writer has for it, is plain, and holds - with what the writer still buffers - exactly what was
   written to it since it was opened (since_opened: the count restarts when the writer has another file than before). *)
Theorem C07_current_never_cleaned c crit k t0 off ops :
  tsdkcfg c crit k -> tag_ok c -> sfx_ok (c_spec c) -> Forall basic_op ops ->
  clock_in_years (ts_e c off) t0 ops ->
  let x := fst (run (sys0 t0 off) (OStart c :: ops)) in
  forall path ino, writer_file x = Some (path, ino) ->
  exists s o_rot wr fl,
    s_flw x = Some s /\ f_inner s = Active o_rot wr path /\ wino wr = ino
    /\ lookup (wfs (s_w x)) path = Some ino /\ file_of (wfs (s_w x)) path = Some fl
    /\ fgz fl = 0%N /\ fdir fl = false
    /\ fdata fl ++ wpend wr = since_opened (sys0 t0 off) [] (OStart c :: ops).
Proof. exact (timestampsdirect_current_never_cleaned c crit k t0 off ops). Qed.

Print Assumptions C07_cleanup_spares_current.
Print Assumptions C07_current_never_cleaned.
(* non-vacuity: CurrentSpared.cleanup_spares_current_instance (the current file listed last, KLog 1 and KGz 1),
   CurrentSpared.clock_backwards_hypotheses / current_never_cleaned_instance (the clock set back by 5 seconds),
   TsdCleanup.clock_backwards_current_spared (the directories) *)
Check cleanup_spares_current_instance.
Check current_never_cleaned_instance.
