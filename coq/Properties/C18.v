(* C18 - reopen_output / reset_flw.  Statements only: soundness of the tiling oracle applied to the implementation. *)
Require Import FL.Base.Bytes FL.Base.BytesFacts FL.Oracles.O_Stream FL.Oracles.OracleFacts.
From Coq Require Import Permutation.

(* if the oracle accepts, some arrangement (a permutation) of the files concatenates to exactly the logged bytes:
   nothing lost, nothing duplicated, every file a contiguous run of the log in logging order *)
Theorem C18_tiles_sound : forall files logged, oracle_tiles files logged = true ->
  exists arrangement, Permutation (nonempty files) arrangement /\ concat arrangement = logged.
Proof. exact oracle_tiles_sound. Qed.

Require Import FL.Fs.Fs FL.Flw.Model FL.Flw.Run FL.Flw.FaultFacts FL.Flw.ReopenFacts.
(* no rotation, any buffer capacity, ANY history: after an external rename and reopen_output the renamed file holds exactly what was logged
   before (including what was still buffered), the file at the original path exactly what was logged after; nothing else exists *)
Theorem C18_reopen_switches c t0 off ops1 ops2 moved :
  norot c -> Forall wf_op ops1 -> Forall wf_op ops2 -> moved <> logname c ->
  let x := fst (run (sys0 t0 off)
                    (OStart c :: ops1 ++ [OExtRename (logname c) moved; OReopen] ++ ops2 ++ [OStop])) in
  dir_is (wfs (s_w x))
         (if has_write ops1 then [(moved, written ops1); (logname c, written ops2)]
          else if has_write ops2 then [(logname c, written ops2)] else [])
  /\ werrs (s_w x) = [].
Proof. exact (reopen_switches c t0 off ops1 ops2 moved). Qed.

(* reset to another log file (same write mode: both synchronous, same buffer capacity - otherwise the reset is rejected):
   the old file holds exactly the records logged before the reset, the new one those after it *)
Theorem C18_reset_switches c c2 t0 off ops1 ops2 :
  norot c -> norot c2 -> c_cap c2 = c_cap c -> logname c2 <> logname c -> Forall wf_op ops1 -> Forall wf_op ops2 ->
  let x := fst (run (sys0 t0 off) (OStart c :: ops1 ++ [OReset c2] ++ ops2 ++ [OStop])) in
  dir_is (wfs (s_w x))
         ((if has_write ops1 then [(logname c, written ops1)] else [])
          ++ (if has_write ops2 then [(logname c2, written ops2)] else []))
  /\ werrs (s_w x) = [].
Proof. exact (reset_switches c c2 t0 off ops1 ops2). Qed.

(* any alternation of writes / flushes with renames+reopen and resets to fresh names: the files, in switch order, tile the logged stream *)
Theorem C18_switches_tile c t0 off items :
  norot c -> static_ok c items -> NoDup (logname c :: new_names items) -> no_remove items ->
  let x := fst (run (sys0 t0 off) (OStart c :: flat c items ++ [OStop])) in
  exists files, dir_is (wfs (s_w x)) files /\ NoDup (List.map fst files)
    /\ stream files = written (flat c items) /\ werrs (s_w x) = [].
Proof. exact (switches_tile_static c t0 off items). Qed.

(* a reset to another write mode (another buffer capacity) is rejected: error result, state unchanged; in a history all
   records, before and after it, are in the one old file *)
Theorem C18_reset_other_write_mode_rejected c c2 st w :
  norot c -> c_cap c2 <> c_cap c ->
  step (mksys (mkflw c st) w) (OReset c2) = (mksys (mkflw c st) w, ObsRes 1%N false).
Proof. exact (reset_other_write_mode_rejected c c2 st w). Qed.
Theorem C18_reset_rejected_keeps_file c c2 t0 off ops1 ops2 :
  norot c -> c_cap c2 <> c_cap c -> Forall wf_op ops1 -> Forall wf_op ops2 ->
  let x := fst (run (sys0 t0 off) (OStart c :: ops1 ++ [OReset c2] ++ ops2 ++ [OStop])) in
  dir_is (wfs (s_w x)) (if has_write (ops1 ++ ops2) then [(logname c, written (ops1 ++ ops2))] else [])
  /\ werrs (s_w x) = [].
Proof. exact (reset_rejected_keeps_file c c2 t0 off ops1 ops2). Qed.

Check C18_tiles_sound.
Print Assumptions C18_tiles_sound.
Check C18_reopen_switches.
Print Assumptions C18_reopen_switches.
Check C18_reset_switches.
Print Assumptions C18_reset_switches.
Check C18_switches_tile.
Print Assumptions C18_switches_tile.
Check C18_reset_other_write_mode_rejected.
Print Assumptions C18_reset_other_write_mode_rejected.
Check C18_reset_rejected_keeps_file.
Print Assumptions C18_reset_rejected_keeps_file.

(* ------------------------------------------------------------------ with rotation (Numbers naming); proofs in Flw/ReopenRot.v *)
Require Import FL.Base.Bytes FL.Fs.Fs FL.Names.FileSpec FL.Flw.Model FL.Flw.NumInv FL.Flw.Run FL.Flw.NumRun FL.Flw.NumTheorems
  FL.Oracles.O_Flw FL.Flw.ForeignModel FL.Flw.ReopenRot.
Local Open Scope nat_scope.

(* somebody renames the current file to a name outside the family, then reopen_outputfile(): the call succeeds; the renamed
   file holds exactly what was written since the last rotation (buffered tail included), the closed files are untouched,
   the files written afterwards continue the numbering; nothing is lost or duplicated *)
Theorem C18_reopen_numbers c crit t0 off ops1 ops2 moved :
  numcfg c crit -> Forall basic_op ops1 -> Forall basic_op ops2 -> fresh_name c moved ->
  let r := run (sys0 t0 off) (OStart c :: ops1 ++ [OExtRename (cname c) moved; OReopen] ++ ops2 ++ [OStop]) in
  let f := wfs (s_w (fst r)) in
  nth_error (snd r) (S (S (length ops1))) = Some (ObsRes 0 false)
  /\ if wrote ops1 then
       exists closed1 cur1 closed2 cur2,
         reads c (wfs (s_w (fst (run (sys0 t0 off) (OStart c :: ops1 ++ [OStop]))))) (closed1 ++ [cur1])
         /\ concat closed1 ++ cur1 = written ops1
         /\ dir_holds f (numbered c 0 (closed1 ++ closed2) ++ [(cname c, cur2); (moved, cur1)])
         /\ concat closed2 ++ cur2 = written ops2
         /\ concat (closed1 ++ [cur1] ++ closed2 ++ [cur2]) = written (ops1 ++ ops2)
     else exists files, reads c f files /\ concat files = written ops2.
Proof. exact (reopen_numbers c crit t0 off ops1 ops2 moved). Qed.

(* size criterion: the size count survives the reopen (the partition of ops2 is not started afresh) *)
Theorem C18_reopen_numbers_partition c m t0 off ops1 ops2 moved :
  numcfg c (CSize m) -> Forall basic_op ops1 -> Forall basic_op ops2 -> fresh_name c moved -> wrote ops1 = true ->
  let r := run (sys0 t0 off) (OStart c :: ops1 ++ [OExtRename (cname c) moved; OReopen] ++ ops2 ++ [OStop]) in
  exists closed1 cur1 h tl closed2 cur2,
    expected_files m None (items false ops1) = closed1 ++ [cur1]
    /\ partition m [] cur1 (items true ops2) = (cur1 ++ h) :: tl
    /\ h :: tl = closed2 ++ [cur2]
    /\ dir_holds (wfs (s_w (fst r))) (numbered c 0 (closed1 ++ closed2) ++ [(cname c, cur2); (moved, cur1)]).
Proof. exact (reopen_numbers_partition c m t0 off ops1 ops2 moved). Qed.

Theorem C18_reopen_numbers_at_once c crit t0 off ops1 moved :
  numcfg c crit -> Forall basic_op ops1 -> fresh_name c moved -> wrote ops1 = true ->
  let f := wfs (s_w (fst (run (sys0 t0 off) (OStart c :: ops1 ++ [OExtRename (cname c) moved; OReopen])))) in
  exists closed1 cur1,
    concat closed1 ++ cur1 = written ops1
    /\ dir_holds f (numbered c 0 closed1 ++ [(cname c, []); (moved, cur1)]).
Proof. exact (reopen_numbers_at_once c crit t0 off ops1 moved). Qed.

(* reopen_outputfile() with the file in place: the current file is continued, not truncated *)
Theorem C18_reopen_numbers_in_place c crit t0 off ops1 ops2 :
  numcfg c crit -> Forall basic_op ops1 -> Forall basic_op ops2 ->
  let r := run (sys0 t0 off) (OStart c :: ops1 ++ [OReopen] ++ ops2 ++ [OStop]) in
  let f := wfs (s_w (fst r)) in
  nth_error (snd r) (S (length ops1)) = Some (ObsRes 0 false)
  /\ exists files1 files,
       reads c (wfs (s_w (fst (run (sys0 t0 off) (OStart c :: ops1 ++ [OStop]))))) files1
       /\ concat files1 = written ops1
       /\ reads c f files /\ concat files = written (ops1 ++ ops2)
       /\ (forall closed1 cur1, files1 = closed1 ++ [cur1] -> exists t rest, files = closed1 ++ (cur1 ++ t) :: rest)
       /\ (forall m, crit = CSize m -> files = expected_files m None (items false (ops1 ++ ops2))).
Proof. exact (reopen_numbers_in_place c crit t0 off ops1 ops2). Qed.

(* reset(builder) to another Numbers family in the same write mode *)
Theorem C18_reset_numbers c crit c2 crit2 t0 off ops1 ops2 :
  numcfg c crit -> numcfg c2 crit2 -> c_cap c2 = c_cap c -> foreign_family c c2 ->
  Forall basic_op ops1 -> Forall basic_op ops2 ->
  let r := run (sys0 t0 off) (OStart c :: ops1 ++ [OReset c2] ++ ops2 ++ [OStop]) in
  nth_error (snd r) (S (length ops1)) = Some (ObsRes 0 false)
  /\ exists files1 files2,
       reads c (wfs (s_w (fst (run (sys0 t0 off) (OStart c :: ops1 ++ [OStop]))))) files1
       /\ concat files1 = written ops1
       /\ concat files2 = written ops2
       /\ (forall m, crit = CSize m -> files1 = expected_files m None (items false ops1))
       /\ (forall m2, crit2 = CSize m2 -> files2 = expected_files m2 None (items false ops2))
       /\ dir_holds (wfs (s_w (fst r))) (fam c files1 ++ fam c2 files2).
Proof. exact (reset_numbers c crit c2 crit2 t0 off ops1 ops2). Qed.

Theorem C18_foreign_family_prefix c c2 :
  is_prefix (fixed0 c) (fixed0 c2) = false -> is_prefix (fixed0 c2) (fixed0 c) = false -> foreign_family c c2.
Proof. exact (foreign_family_prefix c c2). Qed.

Check C18_reopen_numbers.
Print Assumptions C18_reopen_numbers.
Check C18_reopen_numbers_partition.
Print Assumptions C18_reopen_numbers_partition.
Check C18_reopen_numbers_at_once.
Print Assumptions C18_reopen_numbers_at_once.
Check C18_reopen_numbers_in_place.
Print Assumptions C18_reopen_numbers_in_place.
Check C18_reset_numbers.
Print Assumptions C18_reset_numbers.
Check C18_foreign_family_prefix.
Print Assumptions C18_foreign_family_prefix.

(* ------------------------------------------------------------------ with rotation, NumbersDirect naming; proofs in Flw/ReopenRotD.v *)
Require Import FL.Flw.NumDInv FL.Flw.NumDRun FL.Flw.NumDForeign FL.Flw.ReopenRotD.

(* closed1 ++ [cur1]: the files r00000 .. r<L> that ops1 leaves; the current file r<L> is renamed to a name that is no numbered
   name of the family, then reopen_outputfile(): the call succeeds; the renamed file holds exactly what was written since the
   last rotation (buffered tail included); the closed files are untouched; the records of ops2 go to a NEW file at the original
   path (the same number L) and further numbers; nothing is lost or duplicated *)
Theorem C18_reopen_numbersdirect c crit t0 off ops1 ops2 moved closed1 cur1 :
  numdcfg c crit -> Forall basic_op ops1 -> Forall basic_op ops2 -> fresh_name_d c moved ->
  direct_view c (wfs (s_w (fst (run (sys0 t0 off) (OStart c :: ops1 ++ [OStop]))))) (closed1 ++ [cur1]) ->
  let cur := rname c (length closed1) in
  let r := run (sys0 t0 off) (OStart c :: ops1 ++ [OExtRename cur moved; OReopen] ++ ops2 ++ [OStop]) in
  let f := wfs (s_w (fst r)) in
  nth_error (snd r) (S (S (length ops1))) = Some (ObsRes 0 false)
  /\ concat closed1 ++ cur1 = written ops1
  /\ exists closed2 cur2,
       dir_holds f (numbered c 0 (closed1 ++ closed2 ++ [cur2]) ++ [(moved, cur1)])
       /\ In (cur, hd [] (closed2 ++ [cur2])) (numbered c 0 (closed1 ++ closed2 ++ [cur2]))
       /\ concat closed2 ++ cur2 = written ops2
       /\ concat (closed1 ++ [cur1] ++ closed2 ++ [cur2]) = written (ops1 ++ ops2).
Proof. exact (reopen_numbersdirect c crit t0 off ops1 ops2 moved closed1 cur1). Qed.

Theorem C18_reopen_numbersdirect_partition c m t0 off ops1 ops2 moved closed1 cur1 :
  numdcfg c (CSize m) -> Forall basic_op ops1 -> Forall basic_op ops2 -> fresh_name_d c moved ->
  expected_files m None (items false ops1) = closed1 ++ [cur1] ->
  let r := run (sys0 t0 off) (OStart c :: ops1 ++ [OExtRename (rname c (length closed1)) moved; OReopen] ++ ops2 ++ [OStop]) in
  exists h tl,
    partition m [] cur1 (items true ops2) = (cur1 ++ h) :: tl
    /\ dir_holds (wfs (s_w (fst r))) (numbered c 0 (closed1 ++ h :: tl) ++ [(moved, cur1)]).
Proof. exact (reopen_numbersdirect_partition c m t0 off ops1 ops2 moved closed1 cur1). Qed.

Theorem C18_reopen_numbersdirect_at_once c crit t0 off ops1 moved closed1 cur1 :
  numdcfg c crit -> Forall basic_op ops1 -> fresh_name_d c moved ->
  direct_view c (wfs (s_w (fst (run (sys0 t0 off) (OStart c :: ops1 ++ [OStop]))))) (closed1 ++ [cur1]) ->
  let f := wfs (s_w (fst (run (sys0 t0 off) (OStart c :: ops1 ++ [OExtRename (rname c (length closed1)) moved; OReopen])))) in
  concat closed1 ++ cur1 = written ops1
  /\ dir_holds f (numbered c 0 (closed1 ++ [[]]) ++ [(moved, cur1)]).
Proof. exact (reopen_numbersdirect_at_once c crit t0 off ops1 moved closed1 cur1). Qed.

Theorem C18_reopen_numbersdirect_in_place c crit t0 off ops1 ops2 :
  numdcfg c crit -> Forall basic_op ops1 -> Forall basic_op ops2 ->
  let r := run (sys0 t0 off) (OStart c :: ops1 ++ [OReopen] ++ ops2 ++ [OStop]) in
  let f := wfs (s_w (fst r)) in
  nth_error (snd r) (S (length ops1)) = Some (ObsRes 0 false)
  /\ exists files1 files,
       direct_view c (wfs (s_w (fst (run (sys0 t0 off) (OStart c :: ops1 ++ [OStop]))))) files1
       /\ concat files1 = written ops1
       /\ direct_view c f files /\ concat files = written (ops1 ++ ops2)
       /\ (forall closed1 cur1, files1 = closed1 ++ [cur1] -> exists t rest, files = closed1 ++ (cur1 ++ t) :: rest)
       /\ (forall m, crit = CSize m -> files = expected_files m None (items false (ops1 ++ ops2))).
Proof. exact (reopen_numbersdirect_in_place c crit t0 off ops1 ops2). Qed.

Theorem C18_reset_numbersdirect c crit c2 crit2 t0 off ops1 ops2 :
  numdcfg c crit -> numdcfg c2 crit2 -> c_cap c2 = c_cap c -> foreign_family_d c c2 ->
  Forall basic_op ops1 -> Forall basic_op ops2 ->
  let r := run (sys0 t0 off) (OStart c :: ops1 ++ [OReset c2] ++ ops2 ++ [OStop]) in
  nth_error (snd r) (S (length ops1)) = Some (ObsRes 0 false)
  /\ exists files1 files2,
       direct_view c (wfs (s_w (fst (run (sys0 t0 off) (OStart c :: ops1 ++ [OStop]))))) files1
       /\ concat files1 = written ops1
       /\ concat files2 = written ops2
       /\ (forall m, crit = CSize m -> files1 = expected_files m None (items false ops1))
       /\ (forall m2, crit2 = CSize m2 -> files2 = expected_files m2 None (items false ops2))
       /\ dir_holds (wfs (s_w (fst r))) (numbered c 0 files1 ++ numbered c2 0 files2).
Proof. exact (reset_numbersdirect c crit c2 crit2 t0 off ops1 ops2). Qed.

Check C18_reopen_numbersdirect.
Print Assumptions C18_reopen_numbersdirect.
Check C18_reopen_numbersdirect_partition.
Print Assumptions C18_reopen_numbersdirect_partition.
Check C18_reopen_numbersdirect_at_once.
Print Assumptions C18_reopen_numbersdirect_at_once.
Check C18_reopen_numbersdirect_in_place.
Print Assumptions C18_reopen_numbersdirect_in_place.
Check C18_reset_numbersdirect.
Print Assumptions C18_reset_numbersdirect.

(* ------------------------------------------------------------------ with rotation, TimestampsDirect naming; proofs in Flw/ReopenRotTsd.v *)
Require Import FL.Flw.TsTime FL.Flw.TsNames FL.Flw.TsInv FL.Flw.TsRun FL.Flw.TsTheorems FL.Flw.TsdInv FL.Flw.TsdRun FL.Flw.TsForeignFacts FL.Flw.ReopenRotTsd.
Local Open Scope Z_scope.

(* keys1, closed1 ++ [cur1]: keys and contents of the files that ops1 leaves; the current file (the newest key) is renamed to a
   name outside the family, then reopen_outputfile(): the new file at the original path has the same key (time stamp and restart
   counter); a rotation in the same second takes the next restart counter; the keys of the family are those of keys_ok *)
Theorem C18_reopen_timestampsdirect c crit t0 off ops1 ops2 moved keys1 closed1 cur1 :
  tsdcfg c crit -> tag_ok c -> Forall basic_op ops1 -> Forall basic_op ops2 -> Forall tick_ok (ops1 ++ ops2) ->
  (0 <= t0 + ts_e c off) -> (t0 + elapsed (ops1 ++ ops2) + ts_e c off < sec_max) ->
  (N.of_nat (length (ops1 ++ ops2)) <= usize_max)%N ->
  tsd_member c moved = false ->
  let e := ts_e c off in
  tsd_view c e (wfs (s_w (fst (run (sys0 t0 off) (OStart c :: ops1 ++ [OStop]))))) keys1 (closed1 ++ [cur1]) ->
  keys_ok keys1 -> (forall k, In k keys1 -> (t0 <= fst k <= t0 + elapsed ops1)) ->
  let cur := kname c e (nth (length closed1) keys1 kd) in
  let r := run (sys0 t0 off) (OStart c :: ops1 ++ [OExtRename cur moved; OReopen] ++ ops2 ++ [OStop]) in
  let f := wfs (s_w (fst r)) in
  nth_error (snd r) (S (S (length ops1))) = Some (ObsRes 0 false)
  /\ concat closed1 ++ cur1 = written ops1
  /\ exists keys2 closed2 cur2,
       tsdx_view c e f (keys1 ++ keys2) (closed1 ++ closed2 ++ [cur2]) [(moved, cur1)]
       /\ keys_ok (keys1 ++ keys2)
       /\ (forall k, In k (keys1 ++ keys2) -> (t0 <= fst k <= t0 + elapsed (ops1 ++ ops2)))
       /\ length keys1 = S (length closed1)
       /\ concat closed2 ++ cur2 = written ops2
       /\ concat (closed1 ++ [cur1] ++ closed2 ++ [cur2]) = written (ops1 ++ ops2).
Proof. exact (reopen_timestampsdirect c crit t0 off ops1 ops2 moved keys1 closed1 cur1). Qed.

Theorem C18_reopen_timestampsdirect_in_place c crit t0 off ops1 ops2 :
  tsdcfg c crit -> tag_ok c -> Forall basic_op ops1 -> Forall basic_op ops2 -> Forall tick_ok (ops1 ++ ops2) ->
  (0 <= t0 + ts_e c off) -> (t0 + elapsed (ops1 ++ ops2) + ts_e c off < sec_max) ->
  (N.of_nat (length (ops1 ++ ops2)) <= usize_max)%N ->
  let e := ts_e c off in
  let r := run (sys0 t0 off) (OStart c :: ops1 ++ [OReopen] ++ ops2 ++ [OStop]) in
  let f := wfs (s_w (fst r)) in
  nth_error (snd r) (S (length ops1)) = Some (ObsRes 0 false)
  /\ exists keys1 files1 keys files,
       tsd_view c e (wfs (s_w (fst (run (sys0 t0 off) (OStart c :: ops1 ++ [OStop]))))) keys1 files1
       /\ concat files1 = written ops1
       /\ tsd_view c e f keys files /\ keys_ok keys
       /\ (forall k, In k keys -> (t0 <= fst k <= t0 + elapsed (ops1 ++ ops2)))
       /\ concat files = written (ops1 ++ ops2)
       /\ (exists tl, keys = keys1 ++ tl)
       /\ (forall closed1 cur1, files1 = closed1 ++ [cur1] -> exists t rest, files = closed1 ++ (cur1 ++ t) :: rest)
       /\ (forall m, crit = CSize m -> files = expected_files m None (items false (ops1 ++ ops2))).
Proof. exact (reopen_timestampsdirect_in_place c crit t0 off ops1 ops2). Qed.

Theorem C18_reset_timestampsdirect c crit c2 crit2 t0 off ops1 ops2 :
  tsdcfg c crit -> tsdcfg c2 crit2 -> tag_ok c -> tag_ok c2 -> c_cap c2 = c_cap c ->
  foreign_family_tsd c c2 (ts_e c off) ->
  Forall basic_op ops1 -> Forall basic_op ops2 -> Forall tick_ok (ops1 ++ ops2) ->
  (0 <= t0 + ts_e c off) -> (t0 + elapsed ops1 + ts_e c off < sec_max) ->
  (0 <= t0 + elapsed ops1 + ts_e c2 off) -> (t0 + elapsed (ops1 ++ ops2) + ts_e c2 off < sec_max) ->
  (N.of_nat (length (ops1 ++ ops2)) <= usize_max)%N ->
  let r := run (sys0 t0 off) (OStart c :: ops1 ++ [OReset c2] ++ ops2 ++ [OStop]) in
  nth_error (snd r) (S (length ops1)) = Some (ObsRes 0 false)
  /\ exists keys1 files1 keys2 files2,
       tsd_view c (ts_e c off) (wfs (s_w (fst (run (sys0 t0 off) (OStart c :: ops1 ++ [OStop]))))) keys1 files1
       /\ keys_ok keys1 /\ (forall k, In k keys1 -> (t0 <= fst k <= t0 + elapsed ops1))
       /\ concat files1 = written ops1
       /\ length keys2 = length files2 /\ keys_ok keys2
       /\ (forall k, In k keys2 -> (t0 + elapsed ops1 <= fst k <= t0 + elapsed (ops1 ++ ops2)))
       /\ concat files2 = written ops2
       /\ (forall m, crit = CSize m -> files1 = expected_files m None (items false ops1))
       /\ (forall m2, crit2 = CSize m2 -> files2 = expected_files m2 None (items false ops2))
       /\ dir_holds (wfs (s_w (fst r))) (keyed c (ts_e c off) keys1 files1 ++ keyed c2 (ts_e c2 off) keys2 files2).
Proof. exact (reset_timestampsdirect c crit c2 crit2 t0 off ops1 ops2). Qed.

Check C18_reopen_timestampsdirect.
Print Assumptions C18_reopen_timestampsdirect.
Check C18_reopen_timestampsdirect_in_place.
Print Assumptions C18_reopen_timestampsdirect_in_place.
Check C18_reset_timestampsdirect.
Print Assumptions C18_reset_timestampsdirect.

(* ------------------------------------------------------------------ with rotation, Timestamps naming (rCURRENT); proofs in Flw/ReopenRotTs.v *)
Require Import FL.Flw.ReopenRotTs.
Local Open Scope Z_scope.

(* somebody renames rCURRENT to a name outside the family (ts_member rejects it), then reopen_outputfile(): the call succeeds;
   the renamed file holds exactly what was written since the last rotation (buffered tail included); the closed files are
   untouched; the records of ops2 go to a new rCURRENT and further closed files; nothing is lost, duplicated or reordered.
   The naming state survives: the rCURRENT created by the reopen is later closed under the time stamp ts1 of the MOVED file's
   start, with the restart counter the moved file would have got - no name is used twice (keys_ok) *)
Theorem C18_reopen_timestamps c crit t0 off ops1 ops2 moved :
  tscfg c crit -> tag_ok c -> Forall basic_op ops1 -> Forall basic_op ops2 -> Forall tick_ok (ops1 ++ ops2) ->
  (0 <= t0 + ts_e c off) -> (t0 + elapsed (ops1 ++ ops2) + ts_e c off < sec_max) ->
  (N.of_nat (length (ops1 ++ ops2)) <= usize_max)%N ->
  ts_member c moved = false -> wrote ops1 = true ->
  let e := ts_e c off in
  let x1 := fst (run (sys0 t0 off) (OStart c :: ops1)) in
  let r := run (sys0 t0 off) (OStart c :: ops1 ++ [OExtRename (cname c) moved; OReopen] ++ ops2 ++ [OStop]) in
  let f := wfs (s_w (fst r)) in
  nth_error (snd r) (S (S (length ops1))) = Some (ObsRes 0 false)
  /\ exists keys1 closed1 cur1 ts1 keys2 closed2 cur2,
       ts_view c e (wfs (s_w (fst (run (sys0 t0 off) (OStart c :: ops1 ++ [OStop]))))) keys1 closed1 cur1
       /\ concat closed1 ++ cur1 = written ops1
       /\ ns_stamp x1 = Some ts1 /\ (t0 <= ts1 <= t0 + elapsed ops1)
       /\ tsx_view c e f (keys1 ++ keys2) (closed1 ++ closed2) cur2 [(moved, cur1)]
       /\ keys_ok (keys1 ++ keys2)
       /\ (forall k, In k (keys1 ++ keys2) -> (t0 <= fst k <= t0 + elapsed (ops1 ++ ops2)))
       /\ concat closed2 ++ cur2 = written ops2
       /\ concat (closed1 ++ [cur1] ++ closed2 ++ [cur2]) = written (ops1 ++ ops2)
       /\ (keys2 = [] \/ exists tl, keys2 = (ts1, count ts1 keys1) :: tl).
Proof. exact (reopen_timestamps c crit t0 off ops1 ops2 moved). Qed.

(* reopen_outputfile() with rCURRENT in place: the current file is continued, not truncated *)
Theorem C18_reopen_timestamps_in_place c crit t0 off ops1 ops2 :
  tscfg c crit -> tag_ok c -> Forall basic_op ops1 -> Forall basic_op ops2 -> Forall tick_ok (ops1 ++ ops2) ->
  (0 <= t0 + ts_e c off) -> (t0 + elapsed (ops1 ++ ops2) + ts_e c off < sec_max) ->
  (N.of_nat (length (ops1 ++ ops2)) <= usize_max)%N -> wrote ops1 = true ->
  let e := ts_e c off in
  let r := run (sys0 t0 off) (OStart c :: ops1 ++ [OReopen] ++ ops2 ++ [OStop]) in
  let f := wfs (s_w (fst r)) in
  nth_error (snd r) (S (length ops1)) = Some (ObsRes 0 false)
  /\ exists keys1 closed1 cur1 keys2 closed2 cur2,
       ts_view c e (wfs (s_w (fst (run (sys0 t0 off) (OStart c :: ops1 ++ [OStop]))))) keys1 closed1 cur1
       /\ concat closed1 ++ cur1 = written ops1
       /\ ts_view c e f (keys1 ++ keys2) (closed1 ++ closed2) cur2
       /\ keys_ok (keys1 ++ keys2)
       /\ (forall k, In k (keys1 ++ keys2) -> (t0 <= fst k <= t0 + elapsed (ops1 ++ ops2)))
       /\ concat (closed1 ++ closed2) ++ cur2 = written (ops1 ++ ops2)
       /\ (exists t, closed2 ++ [cur2] = (cur1 ++ t) :: List.tl (closed2 ++ [cur2])).
Proof. exact (reopen_timestamps_in_place c crit t0 off ops1 ops2). Qed.

Check C18_reopen_timestamps.
Print Assumptions C18_reopen_timestamps.
Check C18_reopen_timestamps_in_place.
Print Assumptions C18_reopen_timestamps_in_place.
