(* Facts about level_sort / enabled: the first match in the sorted list is the longest-prefix match. *)
Require Import FL.Base.Bytes FL.LogSpec.Spec.
From Coq Require Import Permutation.
Open Scope nat_scope.

Lemma is_prefix_firstn p s : is_prefix p s = true <-> firstn (length p) s = p.
Proof.
  revert s; induction p as [|a p IH]; intros s; cbn [is_prefix length firstn].
  - split; auto.
  - destruct s as [|b s]; cbn [firstn].
    + split; discriminate.
    + rewrite andb_true_iff, IH. destruct (N.eqb_spec a b) as [->|Hn].
      * split; [intros [_ ->]; reflexivity | intros H; inversion H as [H1]; rewrite H1; auto].
      * split; [intros [H _]; discriminate | intros H; inversion H; congruence].
Qed.

Lemma utf8_len1_pos c : 1 <= utf8_len1 c.
Proof. unfold utf8_len1. destruct (c <? 128)%N, (c <? 2048)%N, (c <? 65536)%N; lia. Qed.
Lemma utf8_len_app a b : utf8_len (a ++ b) = utf8_len a + utf8_len b.
Proof. induction a as [|x a IH]; cbn [utf8_len app]; lia. Qed.
Lemma utf8_len_zero s : utf8_len s = 0 -> s = [].
Proof. destruct s as [|c r]; [reflexivity|]. cbn [utf8_len]. pose proof (utf8_len1_pos c). lia. Qed.

Lemma prefix_split p q (s : ustr) : firstn (length p) s = p -> firstn (length q) s = q -> length p <= length q ->
  q = p ++ skipn (length p) q.
Proof.
  intros H1 H2 L. assert (E : firstn (length p) q = p).
  { rewrite <- H2. rewrite firstn_firstn. rewrite Nat.min_l by exact L. exact H1. }
  rewrite <- E at 1. symmetry. apply firstn_skipn.
Qed.

(* two names of the same byte length that are both prefixes of one target are equal *)
Lemma prefix_same_len p q s :
  is_prefix p s = true -> is_prefix q s = true -> utf8_len p = utf8_len q -> p = q.
Proof.
  rewrite !is_prefix_firstn. intros H1 H2 L.
  destruct (Nat.le_ge_cases (length p) (length q)) as [Hle|Hle].
  - pose proof (prefix_split p q s H1 H2 Hle) as E.
    rewrite E in L. rewrite utf8_len_app in L. assert (Z : utf8_len (skipn (length p) q) = 0) by lia.
    apply utf8_len_zero in Z. rewrite Z, app_nil_r in E. auto.
  - pose proof (prefix_split q p s H2 H1 Hle) as E.
    rewrite E in L. rewrite utf8_len_app in L. assert (Z : utf8_len (skipn (length q) p) = 0) by lia.
    apply utf8_len_zero in Z. rewrite Z, app_nil_r in E. auto.
Qed.

(* ---- declarative specification of the filtering decision ---- *)
Definition matches (t : ustr) (f : mfilter) : bool :=
  match fst f with Some n => is_prefix n t | None => true end.
Definition best (l : list mfilter) (t : ustr) (f : mfilter) : Prop :=
  In f l /\ matches t f = true /\ forall g, In g l -> matches t g = true -> keylen g <= keylen f.
(* the answer b is the level test of a best filter, or false when no filter matches *)
Definition spec_enabled (l : list mfilter) (lvl : level) (t : ustr) (b : bool) : Prop :=
  (exists f, best l t f /\ b = Nat.leb lvl (snd f)) \/ ((forall f, In f l -> matches t f = false) /\ b = false).
(* each module named at most once, no empty module name *)
Definition wf_filters (l : list mfilter) : Prop :=
  NoDup (List.map fst l) /\ (forall f, In f l -> fst f <> Some []).

Lemma insert_perm x l : Permutation (x :: l) (insert_f x l).
Proof.
  induction l as [|y r IH]; cbn [insert_f]; auto. destruct (Nat.leb (keylen y) (keylen x)); auto.
  eapply perm_trans; [apply perm_swap|]. constructor; exact IH.
Qed.
Lemma sort_perm l : Permutation l (level_sort l).
Proof.
  induction l as [|x l IH]; cbn [level_sort fold_right]; auto.
  eapply perm_trans; [|apply insert_perm]. constructor; exact IH.
Qed.

Inductive desc : list mfilter -> Prop :=
| d_nil : desc []
| d_cons x l : desc l -> (forall y, In y l -> keylen y <= keylen x) -> desc (x :: l).

Lemma insert_desc x l : desc l -> desc (insert_f x l).
Proof.
  induction 1 as [|y r D IH Hy]; cbn [insert_f].
  - constructor; [constructor | intros ? []].
  - destruct (Nat.leb_spec (keylen y) (keylen x)).
    + constructor; [constructor; auto|]. intros z [<-|Hz]; [lia|]. specialize (Hy z Hz); lia.
    + constructor; auto. intros z Hz. apply (Permutation_in _ (Permutation_sym (insert_perm x r))) in Hz.
      destruct Hz as [<-|Hz]; [lia | auto].
Qed.
Lemma sort_desc l : desc (level_sort l).
Proof. induction l; cbn [level_sort fold_right]; [constructor | apply insert_desc; auto]. Qed.

Lemma keylen_zero_named n lv : keylen (Some n, lv) = 0 -> n = [].
Proof. unfold keylen; cbn [fst]. apply utf8_len_zero. Qed.
Lemma keylen_pos n lv : n <> [] -> 1 <= keylen (Some n, lv).
Proof. intros Hne. destruct (keylen (Some n, lv)) eqn:E; [apply keylen_zero_named in E; congruence | lia]. Qed.

(* the first match in a descending list is a best match *)
Lemma enabled_desc l lvl t :
  desc l -> (forall f, In f l -> fst f <> Some []) -> NoDup (List.map fst l) ->
  spec_enabled l lvl t (enabled l lvl t).
Proof.
  induction 1 as [|x r D IH Hx]; intros NE ND.
  - right. split; [intros ? [] | reflexivity].
  - destruct x as [[n|] f]; cbn [enabled].
    + destruct (is_prefix n t) eqn:P.
      * left. exists (Some n, f). split; [|reflexivity]. split; [left; reflexivity|]. split; [exact P|].
        intros g [<-|Hg] _; [lia | apply Hx; exact Hg].
      * inversion ND as [|? ? Hn ND']; subst.
        destruct (IH (fun g Hg => NE g (or_intror Hg)) ND') as [[g [[Hin [Hm Hb]] E]]|[Hno E]].
        -- left. exists g. split; [|exact E]. split; [right; exact Hin|]. split; [exact Hm|].
           intros h [<-|Hh] Mh; [unfold matches in Mh; cbn [fst] in Mh; congruence | apply Hb; auto].
        -- right. split; [|exact E]. intros h [<-|Hh]; [exact P | apply Hno; exact Hh].
    + left. exists (None, f). split; [|reflexivity]. split; [left; reflexivity|]. split; [reflexivity|].
      intros g [<-|Hg] _; [lia|]. specialize (Hx g Hg). exact Hx.
Qed.

Lemma nodup_key_inj (l : list mfilter) f g :
  NoDup (List.map fst l) -> In f l -> In g l -> fst f = fst g -> f = g.
Proof.
  induction l as [|x l IH]; cbn [List.map In]; intros ND Hf Hg K; [destruct Hf|].
  inversion ND as [|? ? Hx ND']; subst.
  destruct Hf as [Hf|Hf], Hg as [Hg|Hg]; subst; auto.
  - exfalso. apply Hx. rewrite K. apply in_map. exact Hg.
  - exfalso. apply Hx. rewrite <- K. apply in_map. exact Hf.
Qed.

(* the declarative relation is a function: the best filter is unique *)
Lemma best_unique l t f g : wf_filters l -> best l t f -> best l t g -> f = g.
Proof.
  intros [ND NE] [Hf [Mf Bf]] [Hg [Mg Bg]].
  assert (L : keylen f = keylen g) by (specialize (Bf g Hg Mg); specialize (Bg f Hf Mf); lia).
  assert (K : fst f = fst g).
  { destruct f as [[n|] a], g as [[m|] b]; unfold matches in *; cbn [fst] in *.
    - f_equal. eapply prefix_same_len; eauto.
    - exfalso. apply (NE _ Hf). cbn [fst]. f_equal. apply (keylen_zero_named n a). exact L.
    - exfalso. apply (NE _ Hg). cbn [fst]. f_equal. apply (keylen_zero_named m b). symmetry. exact L.
    - reflexivity. }
  eapply nodup_key_inj; eauto.
Qed.

Lemma spec_enabled_fun l lvl t b1 b2 : wf_filters l -> spec_enabled l lvl t b1 -> spec_enabled l lvl t b2 -> b1 = b2.
Proof.
  intros W [[f [Bf E1]]|[N1 E1]] [[g [Bg E2]]|[N2 E2]]; subst.
  - rewrite (best_unique l t f g W Bf Bg). reflexivity.
  - destruct Bf as [Hin [Hm _]]. rewrite (N2 f Hin) in Hm. discriminate.
  - destruct Bg as [Hin [Hm _]]. rewrite (N1 g Hin) in Hm. discriminate.
  - reflexivity.
Qed.

Lemma spec_enabled_perm p l lvl t b : Permutation p l -> spec_enabled p lvl t b -> spec_enabled l lvl t b.
Proof.
  intros P [[f [[Hin [Hm Hb]] E]]|[Hno E]].
  - left. exists f. split; [|exact E]. split; [eapply Permutation_in; eauto|]. split; [exact Hm|].
    intros g Hg. apply Hb. eapply Permutation_in; [apply Permutation_sym; exact P | exact Hg].
  - right. split; [|exact E]. intros f Hf. apply Hno. eapply Permutation_in; [apply Permutation_sym; exact P | exact Hf].
Qed.

Lemma wf_perm p l : Permutation p l -> wf_filters l -> wf_filters p.
Proof.
  intros P [ND NE]. split.
  - eapply Permutation_NoDup; [apply Permutation_map, Permutation_sym; exact P | exact ND].
  - intros f Hf. apply NE. eapply Permutation_in; eauto.
Qed.

Theorem longest_prefix l lvl t : wf_filters l -> spec_enabled l lvl t (enabled (level_sort l) lvl t).
Proof.
  intros W. pose proof (Permutation_sym (sort_perm l)) as P.
  destruct (wf_perm _ l P W) as [ND NE].
  exact (spec_enabled_perm _ l lvl t _ P (enabled_desc _ lvl t (sort_desc l) NE ND)).
Qed.

(* sorting a sorted list changes nothing, so a specification value can be re-sorted freely *)
Lemma insert_desc_head x l : desc (x :: l) -> insert_f x l = x :: l.
Proof.
  intros D. inversion D as [|? ? D' Hx]; subst. destruct l as [|y r]; [reflexivity|].
  cbn [insert_f]. specialize (Hx y (or_introl eq_refl)). destruct (Nat.leb_spec (keylen y) (keylen x)); [reflexivity | lia].
Qed.
Lemma sort_desc_id l : desc l -> level_sort l = l.
Proof.
  induction 1 as [|x l D IH Hx]; [reflexivity|]. cbn [level_sort fold_right]. fold (level_sort l). rewrite IH.
  apply insert_desc_head. constructor; assumption.
Qed.
Lemma level_sort_idem l : level_sort (level_sort l) = level_sort l.
Proof. apply sort_desc_id, sort_desc. Qed.

(* anything enabled is at or below the maximum level of the specification *)
Lemma enabled_le_max l lvl t : enabled l lvl t = true -> lvl <= max_level l.
Proof.
  induction l as [|[[n|] f] r IH]; cbn [enabled max_level snd]; [discriminate| |].
  - destruct (is_prefix n t); intros H; [apply Nat.leb_le in H; lia | specialize (IH H); lia].
  - intros H. apply Nat.leb_le in H. lia.
Qed.
