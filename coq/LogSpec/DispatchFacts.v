(* Facts about routing (FlexiLogger::log / enabled) and the handle's reconfiguration operations. *)
Require Import FL.Base.Bytes FL.Base.BytesFacts FL.LogSpec.Spec FL.LogSpec.SpecFacts FL.LogSpec.Dispatch.
Open Scope nat_scope.

Definition brace_target (t : ustr) : bool := match t with c :: _ => (c =? c_lbrace)%N | [] => false end.
Definition text_ok (rm : ustr -> ustr -> bool) (lg : logger) (r : record) : bool :=
  match sp_text (lg_spec lg) with Some p => rm p (r_msg r) | None => true end.
Definition raw_names (t : ustr) : list ustr :=
  split_on c_comma (match brace_inner t with Some i => i | None => [] end).
Definition names_of (t : ustr) : list ustr := dedup [] (raw_names t).

Lemma dedup_incl seen l x : In x (dedup seen l) -> In x l.
Proof.
  revert seen. induction l as [|y r IH]; intros seen; cbn [dedup]; [intros []|].
  destruct (existsb (beq y) seen); [intros H; right; eapply IH; exact H|].
  intros [<-|H]; [left; reflexivity | right; eapply IH; exact H].
Qed.
Lemma existsb_beq_in x l : existsb (beq x) l = true <-> In x l.
Proof.
  rewrite existsb_exists. split.
  - intros [y [I E]]. apply beq_eq in E. subst. exact I.
  - intros I. exists x. split; [exact I | apply beq_refl].
Qed.
(* every name of the list survives, unless it was seen before *)
Lemma dedup_keeps seen l x : In x l -> existsb (beq x) seen = false -> In x (dedup seen l).
Proof.
  revert seen. induction l as [|y r IH]; intros seen; [intros []|]. cbn [dedup]. intros [->|I] S.
  - rewrite S. left; reflexivity.
  - destruct (existsb (beq y) seen) eqn:Y; [apply IH; assumption|].
    destruct (beq_spec x y) as [->|N]; [left; reflexivity|]. right. apply IH; [exact I|].
    cbn [existsb]. rewrite (beq_neq _ _ N). exact S.
Qed.
Lemma dedup_default l : existsb (fun n => beq n w_default) (dedup [] l) = existsb (fun n => beq n w_default) l.
Proof.
  destruct (existsb (fun n => beq n w_default) l) eqn:E.
  - apply existsb_exists in E. destruct E as [x [I B]]. apply existsb_exists. exists x. split; [|exact B].
    apply dedup_keeps; [exact I | reflexivity].
  - destruct (existsb (fun n => beq n w_default) (dedup [] l)) eqn:E2; [|reflexivity].
    apply existsb_exists in E2. destruct E2 as [x [I B]]. apply dedup_incl in I.
    assert (X : existsb (fun n => beq n w_default) l = true) by (apply existsb_exists; exists x; split; assumption). congruence.
Qed.

Definition is_primary (e : event) : bool := match e with EvPrimary _ _ => true | _ => false end.
Definition is_filter (e : event) : bool := match e with EvFilter => true | _ => false end.
Definition primary_events (rm : ustr -> ustr -> bool) (lg : logger) (r : record) (target : ustr) : list event :=
  if enabled (sp_filters (lg_spec lg)) (r_level r) target && text_ok rm lg r
  then (if lg_filter lg then [EvFilter] else [])
       ++ [EvPrimary (dup_match (lg_dup_err lg) (r_level r)) (dup_match (lg_dup_out lg) (r_level r))]
  else [].

(* log_record, unfolded once *)
Lemma log_record_plain rm lg r : brace_target (r_target r) = false ->
  log_record rm lg r = Done (primary_events rm lg r (r_target r)).
Proof. unfold log_record, brace_target, primary_events, text_ok. intros H. rewrite H. reflexivity. Qed.

(* ---- serve: who is handed the record ---- *)
Fixpoint count_name (n : ustr) (l : list ustr) : nat :=
  match l with [] => 0 | x :: r => (if beq x n then 1 else 0) + count_name n r end.
Fixpoint count_writes (n : ustr) (l : list event) : nat :=
  match l with
  | [] => 0
  | EvWrite m _ :: r => (if beq m n then 1 else 0) + count_writes n r
  | _ :: r => count_writes n r
  end.
Fixpoint count_bad (n : ustr) (l : list event) : nat :=
  match l with
  | [] => 0
  | EvBadWriter m :: r => (if beq m n then 1 else 0) + count_bad n r
  | _ :: r => count_bad n r
  end.

(* after the removal of repetitions each name occurs at most once *)
Lemma count_dedup n l : forall seen,
  count_name n (dedup seen l) = if existsb (beq n) seen then 0 else if existsb (beq n) l then 1 else 0.
Proof.
  induction l as [|y r IH]; intros seen; cbn [dedup count_name existsb].
  - destruct (existsb (beq n) seen); reflexivity.
  - destruct (existsb (beq y) seen) eqn:Y.
    + rewrite IH. destruct (existsb (beq n) seen) eqn:S; [reflexivity|].
      destruct (beq_spec n y) as [->|N]; [congruence | reflexivity].
    + cbn [count_name]. rewrite IH. cbn [existsb]. destruct (beq_spec y n) as [->|N].
      * rewrite beq_refl, Y. reflexivity.
      * rewrite (beq_neq n y) by congruence. cbn [orb]. destruct (existsb (beq n) seen); reflexivity.
Qed.

Lemma count_writes_app n a b : count_writes n (a ++ b) = count_writes n a + count_writes n b.
Proof. induction a as [|[m e|m| |x y] a IH]; cbn [app count_writes]; lia. Qed.
Lemma count_bad_app n a b : count_bad n (a ++ b) = count_bad n a + count_bad n b.
Proof. induction a as [|[m e|m| |x y] a IH]; cbn [app count_bad]; lia. Qed.

(* what one name of the list contributes *)
Definition serve_event (ws : list owriter) (lvl : level) (n : ustr) : list event :=
  if beq n w_default then [] else
  match find_writer ws n with Some w => [EvWrite n (emits w lvl)] | None => [EvBadWriter n] end.

Lemma serve_flat_map ws lvl names :
  serve ws lvl names = (flat_map (serve_event ws lvl) names, existsb (fun n => beq n w_default) names).
Proof.
  induction names as [|n r IH]; [reflexivity|]. cbn [serve flat_map existsb]. rewrite IH. unfold serve_event.
  destruct (beq n w_default); [reflexivity|]. destruct (find_writer ws n); reflexivity.
Qed.

Lemma serve_default ws lvl names : snd (serve ws lvl names) = existsb (fun n => beq n w_default) names.
Proof. rewrite serve_flat_map. reflexivity. Qed.

(* a registered name other than _Default is served once per occurrence in the list, an unregistered one never *)
Lemma serve_counts ws lvl names n : beq n w_default = false ->
  count_writes n (fst (serve ws lvl names)) = match find_writer ws n with Some _ => count_name n names | None => 0 end
  /\ count_bad n (fst (serve ws lvl names)) = match find_writer ws n with Some _ => 0 | None => count_name n names end.
Proof.
  intros Hn. induction names as [|x r IH]; [destruct (find_writer ws n); split; reflexivity|].
  cbn [serve count_name]. destruct (serve ws lvl r) as [evs d]. cbn [fst] in IH.
  destruct (beq_spec x w_default) as [->|Hx].
  - rewrite beq_sym, Hn. cbn [fst]. exact IH.
  - destruct (beq_spec x n) as [->|Hxn].
    + destruct (find_writer ws n) eqn:F; cbn [fst count_writes count_bad]; rewrite beq_refl; destruct IH; split; lia.
    + destruct (find_writer ws x) eqn:F; cbn [fst count_writes count_bad]; rewrite (beq_neq _ _ Hxn); exact IH.
Qed.

Lemma serve_events ws lvl names e : In e (fst (serve ws lvl names)) ->
  (exists n w, e = EvWrite n (emits w lvl) /\ In n names /\ beq n w_default = false /\ find_writer ws n = Some w)
  \/ (exists n, e = EvBadWriter n /\ In n names /\ beq n w_default = false /\ find_writer ws n = None).
Proof.
  rewrite serve_flat_map. cbn [fst]. intros H. apply in_flat_map in H. destruct H as [n [I H]]. unfold serve_event in H.
  destruct (beq n w_default) eqn:D; [destruct H|]. destruct (find_writer ws n) as [w|] eqn:F; destruct H as [<-|[]].
  - left. exists n, w. auto.
  - right. exists n. auto.
Qed.

(* a brace target: the named writers are served once each, the default channel iff _Default is among the names *)
Lemma log_record_brace rm lg r : brace_target (r_target r) = true ->
  log_record rm lg r =
  Done (fst (serve (lg_others lg) (r_level r) (names_of (r_target r)))
        ++ if existsb (fun n => beq n w_default) (raw_names (r_target r))
           then primary_events rm lg r (match r_module r with Some m => m | None => [] end) else []).
Proof.
  intros H. rewrite <- dedup_default, <- (serve_default (lg_others lg) (r_level r)).
  unfold log_record, brace_target, primary_events, text_ok, names_of, raw_names in *. rewrite H.
  destruct (serve _ _ _) as [evs d]. reflexivity.
Qed.

Lemma primary_events_spec rm lg r t e : In e (primary_events rm lg r t) ->
  enabled (sp_filters (lg_spec lg)) (r_level r) t = true /\ text_ok rm lg r = true
  /\ (e = EvFilter \/ e = EvPrimary (dup_match (lg_dup_err lg) (r_level r)) (dup_match (lg_dup_out lg) (r_level r))).
Proof.
  unfold primary_events. destruct (enabled _ _ _); cbn [andb]; [|intros []]. destruct (text_ok rm lg r); [|intros []].
  intros H. split; [reflexivity|]. split; [reflexivity|]. apply in_app_or in H. destruct H as [H|[<-|[]]]; [|right; reflexivity].
  destruct (lg_filter lg); [destruct H as [<-|[]]; left; reflexivity | destruct H].
Qed.

Lemma primary_events_on rm lg r t :
  enabled (sp_filters (lg_spec lg)) (r_level r) t = true -> text_ok rm lg r = true ->
  primary_events rm lg r t = (if lg_filter lg then [EvFilter] else [])
     ++ [EvPrimary (dup_match (lg_dup_err lg) (r_level r)) (dup_match (lg_dup_out lg) (r_level r))].
Proof. unfold primary_events. intros -> ->. reflexivity. Qed.

Lemma primary_events_off rm lg r t :
  enabled (sp_filters (lg_spec lg)) (r_level r) t && text_ok rm lg r = false -> primary_events rm lg r t = [].
Proof. unfold primary_events. intros ->. reflexivity. Qed.

(* ---- the gate ---- *)
Lemma fold_max_ge ws m : m <= fold_left (fun m w => Nat.max m (ow_max w)) ws m.
Proof. revert m. induction ws as [|w r IH]; intros m; cbn [fold_left]; [lia|]. specialize (IH (Nat.max m (ow_max w))). lia. Qed.
Lemma fold_max_in ws m w : In w ws -> ow_max w <= fold_left (fun m w => Nat.max m (ow_max w)) ws m.
Proof.
  revert m. induction ws as [|x r IH]; intros m [].
  - subst. cbn [fold_left]. pose proof (fold_max_ge r (Nat.max m (ow_max w))). lia.
  - cbn [fold_left]. apply IH. assumption.
Qed.
Lemma gate_ge_spec ws s : max_level (sp_filters s) <= gate_for ws s.
Proof. apply fold_max_ge. Qed.
Lemma gate_ge_writer ws s w : In w ws -> ow_max w <= gate_for ws s.
Proof. apply fold_max_in. Qed.

Definition gate_ok (lg : logger) : Prop := lg_gate lg = gate_for (lg_others lg) (lg_spec lg).

Lemma hstep_gate re_ok lg o : gate_ok lg -> gate_ok (fst (hstep re_ok lg o)) /\ lg_others (fst (hstep re_ok lg o)) = lg_others lg.
Proof.
  intros G. destruct o as [s|str|s|str| |d|d]; cbn [hstep].
  - split; reflexivity.
  - destruct (parse re_ok str) as [[|e es] s]; cbn [fst]; [split; reflexivity | split; [exact G | reflexivity]].
  - split; reflexivity.
  - destruct (parse re_ok str) as [[|e es] s]; cbn [fst]; [split; reflexivity | split; [exact G | reflexivity]].
  - destruct (lg_stack lg); cbn [fst]; [split; [exact G | reflexivity] | split; reflexivity].
  - split; [exact G | reflexivity].
  - split; [exact G | reflexivity].
Qed.

Definition hrun (re_ok : ustr -> bool) (lg : logger) (ops : list hop) : logger :=
  fold_left (fun l o => fst (hstep re_ok l o)) ops lg.

Lemma hrun_gate re_ok ops : forall lg, gate_ok lg -> gate_ok (hrun re_ok lg ops) /\ lg_others (hrun re_ok lg ops) = lg_others lg.
Proof.
  induction ops as [|o r IH]; intros lg G; [split; [exact G | reflexivity]|].
  cbn [hrun fold_left]. destruct (hstep_gate re_ok lg o G) as [G1 O1]. destruct (IH _ G1) as [G2 O2].
  split; [exact G2 | unfold hrun in O2; rewrite O2; exact O1].
Qed.

Lemma find_writer_in ws n w : find_writer ws n = Some w -> In w ws /\ beq (ow_name w) n = true.
Proof. unfold find_writer. intros H. apply find_some in H. exact H. Qed.

(* ---- enabled(): never false for a record that is delivered ---- *)
Definition accepts (ws : list owriter) (smax lvl : level) (n : ustr) : bool :=
  if beq n w_default then Nat.leb lvl smax
  else match find_writer ws n with Some w => Nat.leb lvl (ow_max w) | None => false end.

Lemma any_accepts_existsb ws smax lvl names :
  fst (any_accepts ws smax lvl names) = existsb (accepts ws smax lvl) names.
Proof.
  induction names as [|n r IH]; [reflexivity|]. cbn [any_accepts existsb]. unfold accepts at 1.
  destruct (beq n w_default).
  - destruct (Nat.leb lvl smax); [reflexivity | exact IH].
  - destruct ws as [|w0 ws']; [exact IH|]. destruct (find_writer (w0 :: ws') n) as [w|].
    + destruct (Nat.leb lvl (ow_max w)); [reflexivity | exact IH].
    + destruct (any_accepts (w0 :: ws') smax lvl r) as [b evs]. exact IH.
Qed.

Lemma any_accepts_default ws smax lvl names :
  existsb (fun n => beq n w_default) names = true -> lvl <= smax -> fst (any_accepts ws smax lvl names) = true.
Proof.
  intros H L. rewrite any_accepts_existsb. apply existsb_exists in H. destruct H as [n [I D]].
  apply existsb_exists. exists n. split; [exact I|]. unfold accepts. rewrite D. apply Nat.leb_le, L.
Qed.

Lemma any_accepts_writer ws smax lvl names n w :
  In n names -> beq n w_default = false -> find_writer ws n = Some w -> lvl <= ow_max w ->
  fst (any_accepts ws smax lvl names) = true.
Proof.
  intros I D F L. rewrite any_accepts_existsb. apply existsb_exists. exists n. split; [exact I|].
  unfold accepts. rewrite D, F. apply Nat.leb_le, L.
Qed.

Lemma enabled_query_brace lg lvl t : brace_target t = true ->
  enabled_query lg lvl t =
  Done ((if fst (any_accepts (lg_others lg) (max_level (sp_filters (lg_spec lg))) lvl (raw_names t)) then true
         else enabled (sp_filters (lg_spec lg)) lvl t),
        snd (any_accepts (lg_others lg) (max_level (sp_filters (lg_spec lg))) lvl (raw_names t))).
Proof. unfold enabled_query, brace_target, raw_names. intros ->. destruct (any_accepts _ _ _ _). reflexivity. Qed.
Lemma enabled_query_plain lg lvl t : brace_target t = false ->
  enabled_query lg lvl t = Done (enabled (sp_filters (lg_spec lg)) lvl t, []).
Proof. unfold enabled_query, brace_target. intros ->. reflexivity. Qed.

(* a delivery: the primary writer got the record, or an additional writer emitted it within its ceiling *)
Definition delivered (lg : logger) (lvl : level) (e : event) : Prop :=
  is_primary e = true
  \/ exists n w, e = EvWrite n true /\ find_writer (lg_others lg) n = Some w /\ lvl <= ow_max w.

Theorem query_true_if_delivered rm lg r evs e :
  log_record rm lg r = Done evs -> In e evs -> delivered lg (r_level r) e ->
  exists evs', enabled_query lg (r_level r) (r_target r) = Done (true, evs').
Proof.
  intros HL HI HD. destruct (brace_target (r_target r)) eqn:B.
  - rewrite log_record_brace in HL by exact B. inversion HL as [HE]; clear HL. rewrite enabled_query_brace by exact B.
    eexists. f_equal. f_equal.
    assert (A : fst (any_accepts (lg_others lg) (max_level (sp_filters (lg_spec lg))) (r_level r) (raw_names (r_target r))) = true).
    { rewrite <- HE in HI. apply in_app_or in HI. destruct HI as [HI|HI].
      - destruct (serve_events _ _ _ _ HI) as [[n [w [E [I [D F]]]]]|[n [E _]]].
        + destruct HD as [P|[n' [w' [E' [F' L']]]]]; [rewrite E in P; discriminate|].
          rewrite E in E'. injection E' as Hn He. subst n'. rewrite F in F'. injection F' as Hw. subst w'.
          apply dedup_incl in I. eapply any_accepts_writer; eauto.
        + destruct HD as [P|[n' [w' [E' _]]]]; [rewrite E in P; discriminate | rewrite E in E'; discriminate].
      - destruct (existsb _ _) eqn:X; [|destruct HI].
        destruct (primary_events_spec _ _ _ _ _ HI) as [En _]. apply enabled_le_max in En.
        apply any_accepts_default; assumption. }
    rewrite A. reflexivity.
  - rewrite log_record_plain in HL by exact B. inversion HL as [HE]; clear HL. rewrite enabled_query_plain by exact B.
    eexists. f_equal. f_equal. rewrite <- HE in HI. destruct (primary_events_spec _ _ _ _ _ HI) as [En _]. exact En.
Qed.

(* ---- the handle refines an exact stack machine ---- *)
Definition astate := (spec * list spec)%type.
Definition astep (re_ok : ustr -> bool) (a : astate) (o : hop) : astate :=
  let '(act, st) := a in
  match o with
  | HSet s => (s, st)
  | HParseSet str => match parse re_ok str with ([], s) => (s, st) | _ => (act, st) end
  | HPush s => (s, act :: st)
  | HParsePush str => match parse re_ok str with ([], s) => (s, act :: st) | _ => (act, st) end
  | HPop => match st with s :: r => (s, r) | [] => (act, st) end
  | HDupErr _ | HDupOut _ => (act, st)
  end.
Definition abs (lg : logger) : astate := (lg_spec lg, lg_stack lg).

Lemma hstep_refines re_ok lg o : abs (fst (hstep re_ok lg o)) = astep re_ok (abs lg) o.
Proof.
  unfold abs. destruct o as [s|str|s|str| |d|d]; cbn [hstep astep]; try reflexivity.
  - destruct (parse re_ok str) as [[|e es] s]; reflexivity.
  - destruct (parse re_ok str) as [[|e es] s]; reflexivity.
  - destruct (lg_stack lg) eqn:E; cbn [fst lg_spec lg_stack with_spec]; rewrite ?E; reflexivity.
Qed.

Lemma hrun_refines re_ok ops : forall lg, abs (hrun re_ok lg ops) = fold_left (astep re_ok) ops (abs lg).
Proof.
  induction ops as [|o r IH]; intros lg; [reflexivity|]. cbn [hrun fold_left]. rewrite <- hstep_refines. apply IH.
Qed.

Lemma dup_match_spec d lvl : 1 <= lvl <= 5 -> dup_match d lvl = Nat.leb 1 d && (Nat.leb lvl d || Nat.leb 5 d).
Proof.
  intros L. assert (C : lvl = 1 \/ lvl = 2 \/ lvl = 3 \/ lvl = 4 \/ lvl = 5) by lia.
  destruct d as [|[|[|[|[|[|d]]]]]]; destruct C as [->|[->|[->|[->| ->]]]]; reflexivity.
Qed.
