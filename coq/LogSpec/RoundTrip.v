(* Text forms of a LogSpecification round-trip (C17). *)
Require Import FL.Base.Bytes FL.Base.BytesFacts FL.LogSpec.Spec FL.LogSpec.SpecFacts.
From Coq Require Import Permutation.
Open Scope nat_scope.

(* a module name as Display can carry it: non-empty, no white space, none of the separators *)
Definition name_char_ok (c : N) : bool :=
  negb (is_whitespace c) && negb (c =? c_comma)%N && negb (c =? c_eq)%N && negb (c =? c_slash)%N.
Definition name_ok (n : ustr) : Prop := n <> [] /\ forallb name_char_ok n = true.
Definition filters_ok (fs : list mfilter) : Prop :=
  forall f, In f fs -> snd f <= 5 /\ match fst f with Some n => name_ok n | None => True end.
(* at most one default *)
Definition one_default (fs : list mfilter) : Prop :=
  forall a b l1 l2 l3, fs <> l1 ++ (None, a) :: l2 ++ (None, b) :: l3.

(* ================================================================== split_on *)
Definition occ (c : N) (s : ustr) : bool := existsb (fun x => (x =? c)%N) s.

Lemma occ_app c a b : occ c (a ++ b) = occ c a || occ c b.
Proof. apply existsb_app. Qed.
Lemma occ_cons c x a : occ c (x :: a) = (x =? c)%N || occ c a.
Proof. reflexivity. Qed.

Lemma split_on_ne c s : split_on c s <> [].
Proof.
  destruct s as [|x s]; cbn [split_on]; [discriminate|].
  destruct (split_on c s) as [|h t]; [discriminate|]. destruct (x =? c)%N; discriminate.
Qed.

Lemma split_on_cons_sep c b : split_on c (c :: b) = [] :: split_on c b.
Proof.
  cbn [split_on]. destruct (split_on c b) as [|h t] eqn:E; [exfalso; exact (split_on_ne c b E)|].
  rewrite N.eqb_refl. reflexivity.
Qed.

Lemma split_on_cons_other c x b : (x =? c)%N = false ->
  split_on c (x :: b) = match split_on c b with [] => [[]] | h :: t => (x :: h) :: t end.
Proof. intros H. cbn [split_on]. destruct (split_on c b) as [|h t]; [reflexivity|]. rewrite H. reflexivity. Qed.

Lemma split_on_app c a b : occ c a = false -> split_on c (a ++ c :: b) = a :: split_on c b.
Proof.
  induction a as [|x a IH]; intros H.
  - cbn [app]. apply split_on_cons_sep.
  - rewrite occ_cons in H. apply orb_false_iff in H. destruct H as [Hx Ha]. cbn [app].
    rewrite (split_on_cons_other c x _ Hx). rewrite (IH Ha). reflexivity.
Qed.

Lemma split_on_notin c a : occ c a = false -> split_on c a = [a].
Proof.
  induction a as [|x a IH]; intros H; [reflexivity|].
  rewrite occ_cons in H. apply orb_false_iff in H. destruct H as [Hx Ha].
  rewrite (split_on_cons_other c x _ Hx). rewrite (IH Ha). reflexivity.
Qed.

(* ================================================================== trim *)
Definition trim_end (s : ustr) : ustr := rev (trim_start_u (rev s)).
Lemma trim_u_eq s : trim_u s = trim_end (trim_start_u s).
Proof. reflexivity. Qed.

Lemma trim_start_ws c s : is_whitespace c = true -> trim_start_u (c :: s) = trim_start_u s.
Proof. intros H. cbn [trim_start_u]. rewrite H. reflexivity. Qed.
Lemma trim_start_nows c s : is_whitespace c = false -> trim_start_u (c :: s) = c :: s.
Proof. intros H. cbn [trim_start_u]. rewrite H. reflexivity. Qed.

Lemma trim_end_ws s c : is_whitespace c = true -> trim_end (s ++ [c]) = trim_end s.
Proof. intros H. unfold trim_end. rewrite rev_app_distr. cbn [rev app]. rewrite (trim_start_ws c _ H). reflexivity. Qed.
Lemma trim_end_nows s c : is_whitespace c = false -> trim_end (s ++ [c]) = s ++ [c].
Proof.
  intros H. unfold trim_end. rewrite rev_app_distr. cbn [rev app]. rewrite (trim_start_nows c _ H).
  cbn [rev]. rewrite rev_involutive. reflexivity.
Qed.

Lemma has_ws_app a b : has_whitespace (a ++ b) = has_whitespace a || has_whitespace b.
Proof. apply existsb_app. Qed.
Lemma has_ws_cons c a : has_whitespace (c :: a) = is_whitespace c || has_whitespace a.
Proof. reflexivity. Qed.

Lemma trim_end_app a b : b <> [] -> has_whitespace b = false -> trim_end (a ++ b) = a ++ b.
Proof.
  intros Hne Hw. destruct (exists_last Hne) as [b' [d E]]. subst b.
  rewrite has_ws_app in Hw. apply orb_false_iff in Hw. destruct Hw as [_ Hd].
  rewrite has_ws_cons in Hd. apply orb_false_iff in Hd. destruct Hd as [Hd _].
  rewrite app_assoc. apply trim_end_nows. exact Hd.
Qed.

Lemma trim_start_app a b : a <> [] -> has_whitespace a = false -> trim_start_u (a ++ b) = a ++ b.
Proof.
  destruct a as [|c a]; [congruence|]. intros _ H.
  rewrite has_ws_cons in H. apply orb_false_iff in H. destruct H as [Hc _].
  cbn [app]. apply trim_start_nows. exact Hc.
Qed.

Lemma trim_u_mid a m b : a <> [] -> has_whitespace a = false -> b <> [] -> has_whitespace b = false ->
  trim_u (a ++ m ++ b) = a ++ m ++ b.
Proof.
  intros Ha Wa Hb Wb. rewrite trim_u_eq. rewrite (trim_start_app a _ Ha Wa).
  rewrite app_assoc. apply trim_end_app; assumption.
Qed.

Lemma trim_u_nows s : has_whitespace s = false -> trim_u s = s.
Proof.
  intros W. destruct s as [|c s]; [reflexivity|].
  assert (Hne : c :: s <> []) by discriminate.
  rewrite trim_u_eq. rewrite <- (app_nil_r (c :: s)) at 1. rewrite (trim_start_app _ [] Hne W).
  rewrite app_nil_r. apply (trim_end_app [] (c :: s) Hne W).
Qed.

Lemma trim_u_lead_ws c s : is_whitespace c = true -> trim_u (c :: s) = trim_u s.
Proof. intros H. unfold trim_u. rewrite (trim_start_ws c s H). reflexivity. Qed.

Lemma trim_u_trail_ws a c : a <> [] -> has_whitespace a = false -> is_whitespace c = true -> trim_u (a ++ [c]) = a.
Proof.
  intros Ha Wa Hc. rewrite trim_u_eq. rewrite (trim_start_app a _ Ha Wa). rewrite (trim_end_ws a c Hc).
  apply (trim_end_app [] a Ha Wa).
Qed.

(* ================================================================== level words, names *)
Lemma level_word_facts l :
  level_word l <> [] /\ has_whitespace (level_word l) = false /\
  occ c_comma (level_word l) = false /\ occ c_eq (level_word l) = false /\ occ c_slash (level_word l) = false.
Proof.
  do 5 (destruct l as [|l]; [repeat split; try reflexivity; cbn [level_word]; discriminate|]).
  repeat split; try reflexivity; cbn [level_word]; discriminate.
Qed.

Lemma parse_level_word l : l <= 5 -> parse_level (level_word l) = Some l.
Proof.
  intros H. do 6 (destruct l as [|l]; [reflexivity|]). lia.
Qed.

Lemma name_ok_facts n : name_ok n ->
  n <> [] /\ has_whitespace n = false /\ occ c_comma n = false /\ occ c_eq n = false /\ occ c_slash n = false.
Proof.
  intros [Hne Hall]. split; [exact Hne|]. clear Hne.
  induction n as [|c n IH]; [repeat split; reflexivity|].
  cbn [forallb] in Hall. apply andb_true_iff in Hall. destruct Hall as [Hc Hn].
  destruct (IH Hn) as (I1 & I2 & I3 & I4).
  unfold name_char_ok in Hc. repeat (apply andb_true_iff in Hc; destruct Hc as [Hc ?Hx]).
  apply negb_true_iff in Hc. apply negb_true_iff in Hx. apply negb_true_iff in Hx0. apply negb_true_iff in Hx1.
  rewrite has_ws_cons, !occ_cons. rewrite Hc, Hx, Hx0, Hx1, I1, I2, I3, I4. repeat split; reflexivity.
Qed.

(* ================================================================== one item *)
Definition named_ok (f : mfilter) : Prop := snd f <= 5 /\ exists n, fst f = Some n /\ name_ok n.
Definition item (f : mfilter) : ustr := match fst f with Some n => show_named n (snd f) | None => [] end.

Lemma mid_eq : [c_space; c_eq; c_space] = [c_space] ++ c_eq :: [c_space].
Proof. reflexivity. Qed.

Lemma show_named_occ c n lv : occ c [c_space; c_eq; c_space] = false -> occ c n = false -> occ c (level_word lv) = false ->
  occ c (show_named n lv) = false.
Proof. intros H1 H2 H3. unfold show_named. rewrite !occ_app. rewrite H1, H2, H3. reflexivity. Qed.

Lemma show_named_trim n lv : name_ok n -> trim_u (show_named n lv) = show_named n lv.
Proof.
  intros Hn. destruct (name_ok_facts n Hn) as (Hne & Hws & _).
  destruct (level_word_facts lv) as (Wne & Wws & _).
  unfold show_named. apply trim_u_mid; assumption.
Qed.

Lemma show_named_ne n lv : name_ok n -> show_named n lv <> [].
Proof.
  intros [Hne _]. unfold show_named. destruct n as [|c n]; [congruence|]. cbn [app]. discriminate.
Qed.

Lemma match_ne {A} (w : ustr) (a b : A) : w <> [] -> match w with [] => a | _ :: _ => b end = b.
Proof. destruct w; [congruence|reflexivity]. Qed.

Lemma parse_part_item n lv : name_ok n -> lv <= 5 -> parse_part (show_named n lv) = inr (Some n, lv).
Proof.
  intros Hn Hl. destruct (name_ok_facts n Hn) as (Hne & Hws & _ & Heq & _).
  destruct (level_word_facts lv) as (Wne & Wws & _ & Weq & _).
  assert (S : split_on c_eq (show_named n lv) = [n ++ [c_space]; c_space :: level_word lv]).
  { unfold show_named.
    change (n ++ [c_space; c_eq; c_space] ++ level_word lv) with (n ++ [c_space] ++ c_eq :: (c_space :: level_word lv)).
    rewrite app_assoc. rewrite split_on_app.
    - rewrite split_on_notin; [reflexivity|]. rewrite occ_cons, Weq. reflexivity.
    - rewrite occ_app, Heq. reflexivity. }
  unfold parse_part. rewrite S. cbv beta iota zeta.
  rewrite (trim_u_trail_ws n c_space Hne Hws eq_refl).
  rewrite (trim_u_lead_ws c_space (level_word lv) eq_refl).
  rewrite (trim_u_nows _ Wws). rewrite Hws.
  rewrite (match_ne (level_word lv) _ _ Wne).
  rewrite (parse_level_word lv Hl). reflexivity.
Qed.

Lemma parse_part_word lv : lv <= 5 -> parse_part (level_word lv) = inr (None, lv).
Proof.
  intros Hl. destruct (level_word_facts lv) as (Wne & Wws & _ & Weq & _).
  unfold parse_part. rewrite (split_on_notin _ _ Weq). cbv beta iota zeta.
  rewrite (trim_u_nows _ Wws). rewrite Wws. rewrite (parse_level_word lv Hl). reflexivity.
Qed.

Lemma parse_parts_cons p r s f : trim_u p = s -> s <> [] -> parse_part s = inr f ->
  parse_parts (p :: r) = (fst (parse_parts r), f :: snd (parse_parts r)).
Proof.
  intros Ht Hne Hp. cbn [parse_parts]. destruct (parse_parts r) as [es fs]. rewrite Ht.
  destruct s as [|c s]; [congruence|]. rewrite Hp. reflexivity.
Qed.

Lemma named_ok_inv f : named_ok f -> exists n lv, f = (Some n, lv) /\ name_ok n /\ lv <= 5.
Proof.
  destruct f as [k lv]. intros [Hl [n [En Hn]]]. cbn [fst snd] in *. subst k. exists n, lv. auto.
Qed.

Lemma parse_parts_items ns : Forall named_ok ns ->
  parse_parts (List.map (fun f => c_space :: item f) ns) = ([], ns).
Proof.
  induction 1 as [|f r Hf Hr IH]; [reflexivity|].
  destruct (named_ok_inv f Hf) as (n & lv & -> & Hn & Hl). cbn [List.map].
  rewrite (parse_parts_cons _ _ (show_named n lv) (Some n, lv)).
  - rewrite IH. reflexivity.
  - unfold item. cbn [fst snd]. rewrite (trim_u_lead_ws c_space _ eq_refl). apply show_named_trim. exact Hn.
  - apply show_named_ne. exact Hn.
  - apply parse_part_item; assumption.
Qed.

(* ================================================================== the whole text *)
Lemma split_comma_all ns : Forall named_ok ns -> forall pre, occ c_comma pre = false ->
  split_on c_comma (pre ++ show_named_all ns true) = pre :: List.map (fun f => c_space :: item f) ns.
Proof.
  induction 1 as [|f r Hf Hr IH]; intros pre Hpre.
  - cbn [show_named_all List.map]. rewrite app_nil_r. apply split_on_notin. exact Hpre.
  - destruct (named_ok_inv f Hf) as (n & lv & -> & Hn & Hl). cbn [show_named_all List.map].
    unfold sep.
    change (pre ++ [c_comma; c_space] ++ show_named n lv ++ show_named_all r true)
      with (pre ++ c_comma :: ((c_space :: show_named n lv) ++ show_named_all r true)).
    rewrite (split_on_app _ _ _ Hpre). f_equal.
    unfold item at 1. cbn [fst snd]. apply IH.
    destruct (name_ok_facts n Hn) as (_ & _ & Hc & _). destruct (level_word_facts lv) as (_ & _ & Wc & _).
    rewrite occ_cons. rewrite (show_named_occ c_comma n lv eq_refl Hc Wc). reflexivity.
Qed.

Lemma show_all_slash ns : Forall named_ok ns -> forall b, occ c_slash (show_named_all ns b) = false.
Proof.
  induction 1 as [|f r Hf Hr IH]; intros b; [reflexivity|].
  destruct (named_ok_inv f Hf) as (n & lv & -> & Hn & Hl). cbn [show_named_all].
  destruct (name_ok_facts n Hn) as (_ & _ & _ & _ & Hc). destruct (level_word_facts lv) as (_ & _ & _ & _ & Wc).
  rewrite !occ_app. rewrite (show_named_occ c_slash n lv eq_refl Hc Wc). rewrite IH.
  destruct b; reflexivity.
Qed.

Lemma show_all_default_end ns lv : forall b, show_named_all (ns ++ [(None, lv)]) b = show_named_all ns b.
Proof.
  induction ns as [|[[n|] l] r IH]; intros b; cbn [app show_named_all]; [reflexivity| |apply IH].
  rewrite IH. reflexivity.
Qed.

Lemma last_filter_app ns x : last_filter (ns ++ [x]) = Some x.
Proof.
  induction ns as [|y r IH]; [reflexivity|]. cbn [app last_filter].
  destruct (r ++ [x]) as [|z q] eqn:E; [destruct r; discriminate|]. exact IH.
Qed.

Lemma last_filter_in l x : last_filter l = Some x -> In x l.
Proof.
  induction l as [|y r IH]; cbn [last_filter]; [discriminate|].
  destruct r as [|z q]; [intros H; inversion H; left; reflexivity|]. intros H. right. apply IH. exact H.
Qed.

Lemma display_named ns : (forall f, In f ns -> exists n, fst f = Some n) -> display ns = show_named_all ns false.
Proof.
  intros H. unfold display. destruct (last_filter ns) as [[[n|] lv]|] eqn:E; try reflexivity.
  apply last_filter_in in E. destruct (H _ E) as [n Hn]. discriminate.
Qed.

Lemma display_default ns lv : display (ns ++ [(None, lv)]) = level_word lv ++ show_named_all ns true.
Proof. unfold display. rewrite last_filter_app. rewrite show_all_default_end. reflexivity. Qed.

Lemma parse_core re_ok s fs0 : occ c_slash s = false -> parse_parts (split_on c_comma s) = ([], fs0) ->
  parse re_ok s = ([], {| sp_filters := level_sort fs0; sp_text := None |}).
Proof. intros H1 H2. unfold parse. rewrite (split_on_notin _ _ H1). cbv beta iota zeta. rewrite H2. reflexivity. Qed.

(* ================================================================== shape of a sorted list *)
Lemma shape fs : desc fs -> (forall f, In f fs -> fst f <> Some []) ->
  exists ns ds, fs = ns ++ ds /\ (forall f, In f ns -> exists n, fst f = Some n) /\ (forall f, In f ds -> fst f = None).
Proof.
  induction 1 as [|x l D IH Hx]; intros NE.
  - exists [], []. split; [reflexivity|]. split; intros ? [].
  - destruct IH as (ns & ds & E & Hn & Hd); [intros f Hf; apply NE; right; exact Hf|].
    destruct x as [[n|] lv].
    + exists ((Some n, lv) :: ns), ds. subst l. split; [reflexivity|]. split; [|exact Hd].
      intros f [<-|Hf]; [exists n; reflexivity | apply Hn; exact Hf].
    + exists [], ((None, lv) :: l). split; [reflexivity|]. split; [intros ? []|].
      intros f [<-|Hf]; [reflexivity|]. pose proof (Hx f Hf) as K.
      destruct f as [[m|] a]; [|reflexivity]. exfalso. apply (NE (Some m, a)); [right; exact Hf|].
      cbn [fst]. f_equal. apply (keylen_zero_named m a). change (keylen (None, lv)) with 0 in K. lia.
Qed.

Lemma nodup_app_r {A} (a b : list A) : NoDup (a ++ b) -> NoDup b.
Proof.
  induction a as [|x a IH]; cbn [app]; intros H; [exact H|]. inversion H as [|? ? _ H']; subst. apply IH. exact H'.
Qed.

Lemma nodup_keys_no_two_defaults (fs : list mfilter) : NoDup (List.map fst fs) ->
  forall l1 a b l3, fs <> l1 ++ (None, a) :: (None, b) :: l3.
Proof.
  intros ND l1 a b l3 ->. rewrite map_app in ND. apply nodup_app_r in ND. cbn [List.map fst] in ND.
  inversion ND as [|? ? Hx _]; subst. apply Hx. left. reflexivity.
Qed.

(* without two defaults in a row, the defaults at the end of a sorted list are at most one *)
Lemma shape1 fs : desc fs -> (forall f, In f fs -> fst f <> Some []) ->
  (forall l1 a b l3, fs <> l1 ++ (None, a) :: (None, b) :: l3) ->
  exists ns ds, fs = ns ++ ds /\ (forall f, In f ns -> exists n, fst f = Some n) /\ (ds = [] \/ exists a, ds = [(None, a)]).
Proof.
  intros D NE N2. destruct (shape fs D NE) as (ns & ds & E & Hn & Hd). exists ns, ds. split; [exact E|]. split; [exact Hn|].
  destruct ds as [|[k a] ds']; [left; reflexivity|]. right. exists a.
  assert (Hk : k = None) by (apply (Hd (k, a)); left; reflexivity). subst k.
  destruct ds' as [|[k2 b] l3]; [reflexivity|].
  assert (Hk : k2 = None) by (apply (Hd (k2, b)); right; left; reflexivity). subst k2.
  destruct (N2 ns a b l3 E).
Qed.

Lemma desc_app_l a b : desc (a ++ b) -> desc a.
Proof.
  induction a as [|x a IH]; intros D; [constructor|]. cbn [app] in D. inversion D as [|? ? D' Hx]; subst.
  constructor; [apply IH; exact D'|]. intros y Hy. apply Hx. apply in_or_app. left. exact Hy.
Qed.

Lemma insert_default_last lv ns : (forall f, In f ns -> 1 <= keylen f) -> insert_f (None, lv) ns = ns ++ [(None, lv)].
Proof.
  induction ns as [|y r IH]; intros H; [reflexivity|]. cbn [insert_f app].
  change (keylen (None, lv)) with 0. pose proof (H y (or_introl eq_refl)) as Hy.
  destruct (Nat.leb_spec (keylen y) 0) as [L|L]; [lia|]. rewrite IH; [reflexivity|].
  intros f Hf. apply H. right. exact Hf.
Qed.

Lemma named_keylen f : named_ok f -> 1 <= keylen f.
Proof.
  intros Hf. destruct (named_ok_inv f Hf) as (n & lv & -> & [Hne _] & _). apply keylen_pos. exact Hne.
Qed.

(* a head part that parses to f, then the named filters after commas *)
Lemma parse_head_items re_ok hd f ns :
  trim_u hd = hd -> hd <> [] -> parse_part hd = inr f -> occ c_comma hd = false -> occ c_slash hd = false ->
  Forall named_ok ns ->
  parse re_ok (hd ++ show_named_all ns true) = ([], {| sp_filters := level_sort (f :: ns); sp_text := None |}).
Proof.
  intros Ht Hne Hp Hc Hs NOK. apply parse_core.
  - rewrite occ_app, Hs. apply (show_all_slash ns NOK).
  - rewrite (split_comma_all ns NOK _ Hc). rewrite (parse_parts_cons _ _ hd f Ht Hne Hp).
    rewrite (parse_parts_items ns NOK). reflexivity.
Qed.

(* Display then parse gives back the very same filter list, without error, for every specification value
   (a list sorted by level_sort) whose names are printable and that has at most one default *)
Theorem display_roundtrip :
  forall re_ok fs, desc fs -> filters_ok fs -> one_default fs ->
    parse re_ok (display fs) = ([], {| sp_filters := fs; sp_text := None |}).
Proof.
  intros re_ok fs D OK OD.
  destruct (shape1 fs D) as (ns & ds & E & Hn & Hds).
  { intros f Hf Hc. destruct (OK f Hf) as [_ H]. rewrite Hc in H. destruct H as [H _]. apply H. reflexivity. }
  { intros l1 a b l3. exact (OD a b l1 [] l3). }
  assert (NOK : Forall named_ok ns).
  { apply Forall_forall. intros f Hf. destruct (OK f) as [Hl Hm]; [subst fs; apply in_or_app; left; exact Hf|].
    destruct (Hn f Hf) as [n En]. rewrite En in Hm. split; [exact Hl|]. exists n. split; assumption. }
  assert (Dn : desc ns) by (subst fs; eapply desc_app_l; exact D).
  destruct Hds as [->|[a ->]].
  - rewrite app_nil_r in E. subst fs. rewrite (display_named ns Hn).
    destruct NOK as [|f r Hf Hr]; [reflexivity|].
    destruct (named_ok_inv f Hf) as (n & lv & -> & Hnm & Hl).
    destruct (name_ok_facts n Hnm) as (_ & _ & Hc & _ & Hs). destruct (level_word_facts lv) as (_ & _ & Wc & _ & Ws).
    cbn [show_named_all]. cbn [app].
    rewrite (parse_head_items re_ok (show_named n lv) (Some n, lv) r).
    + rewrite (sort_desc_id _ Dn). reflexivity.
    + apply show_named_trim. exact Hnm.
    + apply show_named_ne. exact Hnm.
    + apply parse_part_item; assumption.
    + exact (show_named_occ c_comma n lv eq_refl Hc Wc).
    + exact (show_named_occ c_slash n lv eq_refl Hs Ws).
    + exact Hr.
  - subst fs. rewrite display_default.
    assert (Hl : a <= 5) by (apply (OK (None, a)); apply in_or_app; right; left; reflexivity).
    destruct (level_word_facts a) as (Wne & Wws & Wc & _ & Wsl).
    rewrite (parse_head_items re_ok (level_word a) (None, a) ns (trim_u_nows _ Wws) Wne (parse_part_word a Hl) Wc Wsl NOK).
    cbn [level_sort fold_right]. fold (level_sort ns). rewrite (sort_desc_id _ Dn).
    rewrite insert_default_last; [reflexivity|].
    intros f Hf. apply named_keylen. rewrite Forall_forall in NOK. apply NOK. exact Hf.
Qed.
Print Assumptions display_roundtrip.

(* ================================================================== TOML *)
Lemma insert_kv_perm x l : (forall y, In y l -> fst x <> fst y) -> Permutation (x :: l) (insert_kv x l).
Proof.
  induction l as [|y r IH]; intros H; cbn [insert_kv]; [apply Permutation_refl|].
  destruct (lex_lt (fst x) (fst y)); [apply Permutation_refl|].
  rewrite (beq_neq _ _ (H y (or_introl eq_refl))).
  eapply perm_trans; [apply perm_swap|]. constructor. apply IH. intros z Hz. apply H. right. exact Hz.
Qed.

Lemma btree_perm_gen l : forall acc, NoDup (List.map fst l) -> (forall x y, In x l -> In y acc -> fst x <> fst y) ->
  Permutation (acc ++ l) (fold_left (fun acc x => insert_kv x acc) l acc).
Proof.
  induction l as [|x r IH]; intros acc ND Hd; cbn [fold_left].
  - rewrite app_nil_r. apply Permutation_refl.
  - cbn [List.map] in ND. inversion ND as [|? ? Hx ND']; subst.
    assert (P : Permutation (x :: acc) (insert_kv x acc)).
    { apply insert_kv_perm. intros y Hy. apply Hd; [left; reflexivity | exact Hy]. }
    eapply perm_trans; [|apply IH; [exact ND'|]].
    + eapply perm_trans; [apply Permutation_sym, Permutation_middle|].
      change (x :: acc ++ r) with ((x :: acc) ++ r). apply Permutation_app_tail. exact P.
    + intros z y Hz Hy. apply (Permutation_in _ (Permutation_sym P)) in Hy. destruct Hy as [<-|Hy].
      * intros K. apply Hx. rewrite <- K. apply in_map. exact Hz.
      * apply Hd; [right; exact Hz | exact Hy].
Qed.

Lemma btree_perm l : NoDup (List.map fst l) -> Permutation l (btree l).
Proof.
  intros ND. unfold btree. apply (btree_perm_gen l [] ND). intros ? ? _ [].
Qed.

Lemma named_of_app a b : named_of (a ++ b) = named_of a ++ named_of b.
Proof.
  induction a as [|[[n|] lv] r IH]; cbn [app named_of]; [reflexivity| |exact IH]. rewrite IH. reflexivity.
Qed.

Lemma named_of_back ns : (forall f, In f ns -> exists n, fst f = Some n) ->
  List.map (fun kv : ustr * level => (Some (fst kv), snd kv)) (named_of ns) = ns.
Proof.
  induction ns as [|[[n|] lv] r IH]; intros H; [reflexivity| |].
  - cbn [named_of List.map fst snd]. rewrite IH; [reflexivity|]. intros f Hf. apply H. right. exact Hf.
  - exfalso. destruct (H (None, lv) (or_introl eq_refl)) as [n Hn]. discriminate.
Qed.

Lemma named_of_keys_in l n : In n (List.map fst (named_of l)) -> In (Some n) (List.map fst l).
Proof.
  induction l as [|[[m|] lv] r IH]; cbn [named_of List.map fst In]; [auto| |].
  - intros [->|H]; [left; reflexivity | right; apply IH; exact H].
  - intros H. right. apply IH. exact H.
Qed.

Lemma named_of_nodup l : NoDup (List.map fst l) -> NoDup (List.map fst (named_of l)).
Proof.
  induction l as [|[[m|] lv] r IH]; cbn [named_of List.map fst]; intros ND; [constructor| |].
  - inversion ND as [|? ? Hx ND']; subst. constructor; [|apply IH; exact ND'].
    intros H. apply Hx. apply named_of_keys_in. exact H.
  - inversion ND as [|? ? Hx ND']; subst. apply IH. exact ND'.
Qed.

(* what from_doc sorts is a permutation of the original list *)
Lemma doc_perm fs : desc fs -> wf_filters fs ->
  Permutation ((match d_global (to_doc fs) with Some lv => [(None, lv)] | None => [] end)
               ++ List.map (fun kv : ustr * level => (Some (fst kv), snd kv)) (btree (d_modules (to_doc fs)))) fs.
Proof.
  intros D [ND NE]. destruct (shape1 fs D NE (nodup_keys_no_two_defaults fs ND)) as (ns & ds & E & Hn & Hds).
  unfold to_doc. cbn [d_global d_modules].
  assert (PB : Permutation (List.map (fun kv : ustr * level => (Some (fst kv), snd kv)) (btree (named_of fs)))
                           (List.map (fun kv : ustr * level => (Some (fst kv), snd kv)) (named_of fs))).
  { apply Permutation_map. apply Permutation_sym. apply btree_perm. apply named_of_nodup. exact ND. }
  destruct Hds as [->|[a ->]].
  - rewrite app_nil_r in E. subst fs.
    assert (G : match last_filter ns with Some (None, lv) => Some lv | _ => None end = None).
    { destruct (last_filter ns) as [[[n|] lv]|] eqn:EL; try reflexivity.
      apply last_filter_in in EL. destruct (Hn _ EL) as [n Hc]. discriminate. }
    rewrite G. cbn [app]. rewrite (named_of_back ns Hn) in PB. exact PB.
  - subst fs. rewrite last_filter_app. rewrite named_of_app in PB. cbn [named_of] in PB.
    rewrite app_nil_r in PB. rewrite (named_of_back ns Hn) in PB.
    rewrite named_of_app. cbn [named_of]. rewrite app_nil_r. cbn [app].
    eapply perm_trans; [apply perm_skip; exact PB|]. apply Permutation_cons_append.
Qed.

(* the TOML form, semantic half: reading back what was written decides identically *)
Theorem toml_roundtrip :
  forall fs lvl t, desc fs -> wf_filters fs ->
    enabled (from_doc (to_doc fs)) lvl t = enabled fs lvl t.
Proof.
  intros fs lvl t D W. unfold from_doc.
  pose proof (doc_perm fs D W) as P.
  set (p := (match d_global (to_doc fs) with Some lv => [(None, lv)] | None => [] end)
            ++ List.map (fun kv : ustr * level => (Some (fst kv), snd kv)) (btree (d_modules (to_doc fs)))) in *.
  pose proof (spec_enabled_perm p fs lvl t _ P (longest_prefix p lvl t (wf_perm p fs P W))) as S1.
  pose proof (enabled_desc fs lvl t D (proj2 W) (proj1 W)) as S2.
  exact (spec_enabled_fun fs lvl t _ _ W S1 S2).
Qed.
Print Assumptions toml_roundtrip.
