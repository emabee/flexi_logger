(* Structure of LogSpecification::parse: errors come exactly from the malformed parts, the carried
   specification consists of exactly the well-formed parts. *)
Require Import FL.Base.Bytes FL.LogSpec.Spec.
Open Scope nat_scope.

(* the comma-separated parts that count: trimmed and non-empty *)
Definition live_parts (mods : ustr) : list ustr :=
  filter (fun s => match s with [] => false | _ => true end) (List.map trim_u (split_on c_comma mods)).
Definition errors_of (l : list ustr) : list perr :=
  flat_map (fun s => match parse_part s with inl e => [e] | inr _ => [] end) l.
Definition filters_of (l : list ustr) : list mfilter :=
  flat_map (fun s => match parse_part s with inl _ => [] | inr f => [f] end) l.

Lemma parse_parts_spec ps :
  parse_parts ps = (errors_of (filter (fun s => match s with [] => false | _ => true end) (List.map trim_u ps)),
                    filters_of (filter (fun s => match s with [] => false | _ => true end) (List.map trim_u ps))).
Proof.
  induction ps as [|p r IH]; [reflexivity|]. cbn [parse_parts List.map filter]. rewrite IH.
  destruct (trim_u p) as [|c s] eqn:T; [reflexivity|].
  cbn [errors_of filters_of flat_map]. destruct (parse_part (c :: s)); reflexivity.
Qed.

Lemma errors_nil_iff l : errors_of l = [] <-> forall s, In s l -> exists f, parse_part s = inr f.
Proof.
  induction l as [|x r IH]; cbn [errors_of flat_map]; [split; [intros _ s [] | reflexivity]|].
  fold (errors_of r). split.
  - intros H s [<-|I].
    + destruct (parse_part x) as [e|f]; [discriminate | eexists; reflexivity].
    + destruct (parse_part x) as [e|f]; [discriminate|]. apply IH; assumption.
  - intros H. destruct (H x (or_introl eq_refl)) as [f E]. rewrite E. cbn [app]. apply IH. intros s I. apply H. right; exact I.
Qed.

Lemma filters_of_in l f : In f (filters_of l) <-> exists s, In s l /\ parse_part s = inr f.
Proof.
  unfold filters_of. rewrite in_flat_map. split; intros [s [I H]]; exists s; split; auto.
  - destruct (parse_part s) as [e|g]; [destruct H | destruct H as [<-|[]]; reflexivity].
  - rewrite H. left; reflexivity.
Qed.

(* the overall structure: at most one '/' *)
Inductive shape := ShMods (mods : ustr) | ShModsRe (mods re : ustr) | ShTooMany.
Definition shape_of (s : ustr) : shape :=
  match split_on c_slash s with
  | [m] => ShMods m
  | [m; r] => ShModsRe m r
  | [] => ShMods []
  | _ => ShTooMany
  end.

Theorem parse_exact re_ok s :
  match shape_of s with
  | ShTooMany => parse re_ok s = ([PTooManySlashes], spec_off)
  | ShMods m =>
    parse re_ok s = (errors_of (live_parts m), {| sp_filters := level_sort (filters_of (live_parts m)); sp_text := None |})
  | ShModsRe m r =>
    parse re_ok s = (errors_of (live_parts m) ++ (if re_ok r then [] else [PRegex]),
                     {| sp_filters := level_sort (filters_of (live_parts m)); sp_text := if re_ok r then Some r else None |})
  end.
Proof.
  unfold shape_of, parse, live_parts. destruct (split_on c_slash s) as [|m [|r [|x y]]] eqn:E.
  - pose proof (parse_parts_spec (split_on c_comma [])) as P. cbn in P |- *. reflexivity.
  - rewrite parse_parts_spec. rewrite app_nil_r. reflexivity.
  - rewrite parse_parts_spec. destruct (re_ok r); reflexivity.
  - reflexivity.
Qed.

(* ---- totality: parse is a total function, it cannot panic; and it errs exactly on malformed input ---- *)
Corollary parse_ok_iff re_ok s :
  fst (parse re_ok s) = [] <->
  match shape_of s with
  | ShTooMany => False
  | ShMods m => forall p, In p (live_parts m) -> exists f, parse_part p = inr f
  | ShModsRe m r => (forall p, In p (live_parts m) -> exists f, parse_part p = inr f) /\ re_ok r = true
  end.
Proof.
  pose proof (parse_exact re_ok s) as H. destruct (shape_of s) as [m|m r|]; rewrite H; cbn [fst].
  - apply errors_nil_iff.
  - rewrite <- errors_nil_iff. destruct (re_ok r); split.
    + intros A. rewrite app_nil_r in A. split; [exact A | reflexivity].
    + intros [A _]. rewrite A. reflexivity.
    + intros A. apply app_eq_nil in A. destruct A as [_ A]. discriminate.
    + intros [_ A]. discriminate.
  - split; [discriminate | intros []].
Qed.
