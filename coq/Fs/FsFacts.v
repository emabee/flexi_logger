(* Characterising lemmas of the file-system primitives, so that later proofs need not unfold the association lists;
   well-formedness of a directory (`fs_wf`) and its preservation. *)
Require Import FL.Base.Bytes FL.Base.BytesFacts FL.Fs.Fs.
Open Scope nat_scope.

Lemma upd_length {A} (l : list A) i x : length (upd l i x) = length l.
Proof. revert i; induction l; destruct i; simpl; auto. Qed.
Lemma nth_upd {A} (l : list A) i j x d : (i < length l)%nat -> nth j (upd l i x) d = if Nat.eqb j i then x else nth j l d.
Proof. revert i j; induction l as [|y l IH]; intros i j H; simpl in *; [lia|].
  destruct i, j; simpl; auto. rewrite IH by lia. reflexivity. Qed.
Lemma nth_upd_out {A} (l : list A) i x : (length l <= i)%nat -> upd l i x = l.
Proof. revert i; induction l as [|y l IH]; intros i H; simpl in *; [reflexivity|].
  destruct i; [lia|]. rewrite IH by lia. reflexivity. Qed.

(* ---- append_ino ---- *)
Lemma lookup_append f i b n : lookup (append_ino f i b) n = lookup f n.
Proof. reflexivity. Qed.
Lemma names_append f i b : names (append_ino f i b) = names f.
Proof. reflexivity. Qed.
Lemma len_append f i b : length (inodes (append_ino f i b)) = length (inodes f).
Proof. simpl. apply upd_length. Qed.
Lemma content_append f i b j : (i < length (inodes f))%nat ->
  content (append_ino f i b) j = if Nat.eqb j i then content f i ++ b else content f j.
Proof. intros H. unfold content at 1, inode at 1. simpl. rewrite nth_upd by assumption.
  destruct (Nat.eqb j i); reflexivity. Qed.
Lemma append_ino_nil f i : (i < length (inodes f))%nat -> content (append_ino f i []) i = content f i.
Proof. intros H. rewrite content_append, Nat.eqb_refl, app_nil_r by assumption. reflexivity. Qed.

Lemma upd_same_data (l : list file) i : upd l i (with_data (nth i l nofile) (fdata (nth i l nofile) ++ [])) = l.
Proof. revert i; induction l as [|y l IH]; intros i; cbn; [reflexivity|]. destruct i; cbn.
  - unfold with_data. rewrite app_nil_r. destruct y; reflexivity.
  - f_equal. apply IH. Qed.
Lemma append_ino_nil_id f i : append_ino f i [] = f.
Proof. unfold append_ino, content, inode. rewrite upd_same_data. destruct f; reflexivity. Qed.
Lemma upd_upd {A} (l : list A) i x y : upd (upd l i x) i y = upd l i y.
Proof. revert i; induction l as [|z l IH]; intros i; cbn; [reflexivity|]. destruct i; cbn; [reflexivity|]. f_equal. apply IH. Qed.
Lemma append_ino_app f i a b : append_ino (append_ino f i a) i b = append_ino f i (a ++ b).
Proof.
  unfold append_ino; cbn [names inodes]. f_equal. rewrite upd_upd.
  destruct (Nat.ltb_spec i (length (inodes f))) as [Hi|Hi].
  - f_equal. unfold content, inode; cbn [inodes]. rewrite nth_upd, Nat.eqb_refl by assumption.
    unfold with_data; cbn. rewrite app_assoc. reflexivity.
  - rewrite !nth_upd_out by assumption. reflexivity.
Qed.

(* ---- lookup on modified name lists ---- *)
Lemma lookup_cons_eq f' a i l ino : names f' = (a, i) :: l -> inodes f' = ino -> lookup f' a = Some i.
Proof. intros H _. unfold lookup. rewrite H. cbn [find fst snd]. rewrite beq_refl. reflexivity. Qed.

Lemma find_filter_other (l : list (bytes * nat)) (p : bytes * nat -> bool) n :
  (forall x, fst x = n -> p x = true) ->
  find (fun q => beq (fst q) n) (filter p l) = find (fun q => beq (fst q) n) l.
Proof. intros Hp. induction l as [|[m j] l IH]; cbn [filter find fst]; auto.
  destruct (p (m, j)) eqn:Ep; cbn [find fst].
  - destruct (beq m n); [reflexivity | exact IH].
  - destruct (beq_spec m n) as [->|Hn]; [rewrite Hp in Ep by reflexivity; discriminate | exact IH]. Qed.
Lemma find_filter_none (l : list (bytes * nat)) (p : bytes * nat -> bool) n :
  (forall x, fst x = n -> p x = false) ->
  find (fun q => beq (fst q) n) (filter p l) = None.
Proof. intros Hp. induction l as [|[m j] l IH]; cbn [filter find fst]; auto.
  destruct (p (m, j)) eqn:Ep; cbn [find fst]; [|exact IH].
  destruct (beq_spec m n) as [->|Hn]; [rewrite Hp in Ep by reflexivity; discriminate | exact IH]. Qed.

(* ---- rename ---- *)
Lemma rename_spec f a b i : a <> b -> lookup f a = Some i ->
  exists f', rename f a b = Some f' /\ inodes f' = inodes f /\
    lookup f' b = Some i /\ lookup f' a = None /\ (forall n, n <> a -> n <> b -> lookup f' n = lookup f n).
Proof.
  intros Hab Ha. unfold rename. rewrite Ha. eexists; split; [reflexivity|]. split; [reflexivity|].
  split; [|split].
  - unfold lookup; cbn [names find fst snd]. rewrite beq_refl. reflexivity.
  - unfold lookup; cbn [names find fst snd]. rewrite (beq_neq b a) by congruence.
    rewrite find_filter_none; [reflexivity|]. intros x ->. rewrite beq_refl. reflexivity.
  - intros n Hna Hnb. unfold lookup; cbn [names find fst snd]. rewrite (beq_neq b n) by congruence.
    rewrite find_filter_other; [reflexivity|]. intros x ->. rewrite !beq_neq by congruence. reflexivity.
Qed.
Lemma rename_none f a b : lookup f a = None -> rename f a b = None.
Proof. intros H. unfold rename. rewrite H. reflexivity. Qed.

(* ---- unlink ---- *)
Lemma unlink_spec f a : inodes (unlink f a) = inodes f /\ lookup (unlink f a) a = None
  /\ (forall n, n <> a -> lookup (unlink f a) n = lookup f n).
Proof.
  split; [reflexivity|]. split.
  - unfold lookup, unlink; cbn [names]. rewrite find_filter_none; [reflexivity|]. intros x ->. rewrite beq_refl. reflexivity.
  - intros n Hn. unfold lookup, unlink; cbn [names]. rewrite find_filter_other; [reflexivity|].
    intros x ->. rewrite beq_neq by congruence. reflexivity.
Qed.

(* ---- create / open ---- *)
Lemma create_file_spec f a gz now :
  let '(f', i) := create_file f a gz now in
  i = length (inodes f) /\ inodes f' = inodes f ++ [{| fdata := []; fgz := gz; fborn := now; fdir := false |}]
  /\ lookup f' a = Some i /\ (forall n, n <> a -> lookup f' n = lookup f n).
Proof.
  unfold create_file. repeat split.
  - unfold lookup; cbn [names find fst snd]. rewrite beq_refl. reflexivity.
  - intros n Hn. unfold lookup; cbn [names find fst snd]. rewrite beq_neq by congruence. reflexivity.
Qed.

Lemma inode_app_old l i x : (i < length l)%nat -> nth i (l ++ [x]) nofile = nth i l nofile.
Proof. intros; apply app_nth1; assumption. Qed.
Lemma inode_app_new l x : nth (length l) (l ++ [x]) nofile = x.
Proof. rewrite app_nth2 by lia. rewrite Nat.sub_diag. reflexivity. Qed.

(* well-formed: every directory entry points to an allocated inode, no inode has two names *)
Record fs_wf (f : fs) : Prop := {
  wf_bound : forall a j, lookup f a = Some j -> (j < length (inodes f))%nat;
  wf_inj : forall a b j, lookup f a = Some j -> lookup f b = Some j -> a = b }.

Lemma wf_empty : fs_wf empty_fs.
Proof. split; unfold lookup; simpl; intros; discriminate. Qed.

Lemma wf_append f i b : fs_wf f -> fs_wf (append_ino f i b).
Proof. intros [Hb Hi]. split.
  - intros a j. rewrite lookup_append, len_append. apply Hb.
  - intros a c j. rewrite !lookup_append. apply Hi. Qed.

Lemma wf_rename f a b f' : fs_wf f -> rename f a b = Some f' -> fs_wf f'.
Proof.
  intros [Hb Hi] H. destruct (lookup f a) as [i|] eqn:Ea; [|rewrite rename_none in H by assumption; discriminate].
  destruct (beq_spec a b) as [<-|Hab].
  - (* rename onto itself *)
    unfold rename in H. rewrite Ea in H. injection H as <-.
    assert (L : forall n, lookup {| names := (a, i) :: filter (fun p => negb (beq (fst p) a) && negb (beq (fst p) a)) (names f); inodes := inodes f |} n = lookup f n).
    { intros n. unfold lookup at 1; cbn [names find fst snd]. destruct (beq_spec a n) as [<-|Hn]; [rewrite Ea; reflexivity|].
      rewrite find_filter_other; [reflexivity|]. intros x ->. rewrite beq_neq by congruence. reflexivity. }
    split.
    + intros n j. rewrite L. cbn [inodes]. apply Hb.
    + intros n m j. rewrite !L. apply Hi.
  - destruct (rename_spec f a b i Hab Ea) as [f'' [E [Hino [Lb [La Lo]]]]]. rewrite H in E. injection E as <-.
    split.
    + intros n j Hn. rewrite Hino. destruct (beq_spec n b) as [->|Hnb]; [rewrite Lb in Hn; injection Hn as <-; eapply Hb; eassumption|].
      destruct (beq_spec n a) as [->|Hna]; [rewrite La in Hn; discriminate|]. rewrite Lo in Hn by assumption. eapply Hb; eassumption.
    + intros n m j Hn Hm.
      assert (X : forall n, lookup f' n = Some j -> (n = b /\ j = i) \/ (n <> a /\ n <> b /\ lookup f n = Some j)).
      { intros k Hk. destruct (beq_spec k b) as [->|Hkb]; [left; rewrite Lb in Hk; split; congruence|].
        destruct (beq_spec k a) as [->|Hka]; [rewrite La in Hk; discriminate|]. right. rewrite Lo in Hk by assumption. auto. }
      destruct (X n Hn) as [[-> ->]|[Hna [Hnb Hn']]], (X m Hm) as [[-> Hji]|[Hma [Hmb Hm']]]; auto.
      * exfalso. apply Hma. eapply Hi; eassumption.
      * exfalso. subst j. apply Hna. eapply Hi; eassumption.
      * eapply Hi; eassumption.
Qed.

Lemma wf_unlink f a : fs_wf f -> fs_wf (unlink f a).
Proof.
  intros [Hb Hi]. destruct (unlink_spec f a) as [Hino [La Lo]]. split.
  - intros n j Hn. rewrite Hino. destruct (beq_spec n a) as [->|Hna]; [rewrite La in Hn; discriminate|].
    rewrite Lo in Hn by assumption. eapply Hb; eassumption.
  - intros n m j Hn Hm. destruct (beq_spec n a) as [->|Hna]; [rewrite La in Hn; discriminate|].
    destruct (beq_spec m a) as [->|Hma]; [rewrite La in Hm; discriminate|].
    rewrite Lo in Hn, Hm by assumption. eapply Hi; eassumption.
Qed.

Lemma wf_create f a gz now : fs_wf f -> lookup f a = None -> fs_wf (fst (create_file f a gz now)).
Proof.
  intros [Hb Hi] Ha. pose proof (create_file_spec f a gz now) as S. destruct (create_file f a gz now) as [f' i].
  destruct S as [-> [Hino [La Lo]]]. cbn [fst]. split.
  - intros n j Hn. rewrite Hino, app_length; cbn [length].
    destruct (beq_spec n a) as [->|Hna]; [rewrite La in Hn; injection Hn as <-; lia|].
    rewrite Lo in Hn by assumption. apply Hb in Hn. lia.
  - intros n m j Hn Hm.
    destruct (beq_spec n a) as [->|Hna], (beq_spec m a) as [->|Hma]; auto.
    + rewrite La in Hn. injection Hn as <-. rewrite Lo in Hm by assumption. apply Hb in Hm. lia.
    + rewrite La in Hm. injection Hm as <-. rewrite Lo in Hn by assumption. apply Hb in Hn. lia.
    + rewrite Lo in Hn, Hm by assumption. eapply Hi; eassumption.
Qed.

(* open_trunc, then open_append: the returned inode is valid, named by a, and
   either fresh and empty, or the existing one (emptied by truncate) *)
Lemma open_trunc_spec f a gz now : fs_wf f ->
  let '(f', i) := open_trunc f a gz now in
  fs_wf f' /\ lookup f' a = Some i /\ (i < length (inodes f'))%nat /\ content f' i = []
  /\ length (inodes f) <= length (inodes f') /\ (forall n, n <> a -> lookup f' n = lookup f n)
  /\ (forall j, (j < length (inodes f))%nat -> j <> i -> inode f' j = inode f j)
  /\ (lookup f a = None -> i = length (inodes f)) /\ (forall j, lookup f a = Some j -> i = j).
Proof.
  intros W. unfold open_trunc. destruct (lookup f a) as [i|] eqn:Ea.
  - pose proof (wf_bound f W a i Ea) as Hi.
    split; [|split; [|split; [|split; [|split; [|split; [|split; [|split]]]]]]].
    + destruct W as [Hb Hj]. split; unfold lookup in *; cbn [names inodes]; [intros n j Hn; rewrite upd_length; eapply Hb; eassumption | exact Hj].
    + exact Ea.
    + cbn [inodes]. rewrite upd_length. exact Hi.
    + unfold content, inode; cbn [inodes]. rewrite nth_upd, Nat.eqb_refl by assumption. reflexivity.
    + cbn [inodes]. rewrite upd_length. lia.
    + reflexivity.
    + intros j Hj Hne. unfold inode; cbn [inodes]. rewrite nth_upd by assumption.
      destruct (Nat.eqb_spec j i); [congruence | reflexivity].
    + discriminate.
    + intros j Hj. congruence.
  - pose proof (create_file_spec f a gz now) as S. pose proof (wf_create f a gz now W Ea) as W'.
    destruct (create_file f a gz now) as [f' i]. cbn [fst] in W'. destruct S as [-> [Hino [La Lo]]].
    split; [exact W'|]. split; [exact La|]. rewrite Hino, app_length; cbn [length].
    split; [lia|]. split; [unfold content, inode; rewrite Hino, inode_app_new; reflexivity|].
    split; [lia|]. split; [exact Lo|]. split; [|split; [reflexivity | discriminate]].
    intros j Hj _. unfold inode. rewrite Hino, inode_app_old by assumption. reflexivity.
Qed.

Lemma open_append_spec f a now : fs_wf f ->
  let '(f', i) := open_append f a now in
  fs_wf f' /\ lookup f' a = Some i /\ (i < length (inodes f'))%nat
  /\ length (inodes f) <= length (inodes f') /\ (forall n, n <> a -> lookup f' n = lookup f n)
  /\ (forall j, (j < length (inodes f))%nat -> inode f' j = inode f j)
  /\ (lookup f a = None -> i = length (inodes f) /\ content f' i = []) /\ (forall j, lookup f a = Some j -> i = j /\ f' = f).
Proof.
  intros W. unfold open_append. destruct (lookup f a) as [i|] eqn:Ea.
  - pose proof (wf_bound f W a i Ea) as Hi. repeat split; auto; try lia; try congruence; try discriminate; try apply W.
  - pose proof (create_file_spec f a 0%N now) as S. pose proof (wf_create f a 0%N now W Ea) as W'.
    destruct (create_file f a 0%N now) as [f' i]. cbn [fst] in W'. destruct S as [-> [Hino [La Lo]]].
    split; [exact W'|]. split; [exact La|]. rewrite Hino, app_length; cbn [length].
    split; [lia|]. split; [lia|]. split; [exact Lo|]. split; [|split; [|discriminate]].
    + intros j Hj. unfold inode. rewrite Hino, inode_app_old by assumption. reflexivity.
    + intros _. split; [reflexivity|]. unfold content, inode; rewrite Hino, inode_app_new; reflexivity.
Qed.

(* ---- names: what a path leads to ---- *)
Lemma lookup_empty f n : names f = [] -> lookup f n = None.
Proof. intros H. unfold lookup. rewrite H. reflexivity. Qed.

Lemma file_of_lookup f n j : lookup f n = Some j -> file_of f n = Some (inode f j).
Proof. intros H. unfold file_of. rewrite H. reflexivity. Qed.
Lemma file_of_missing f n : lookup f n = None -> file_of f n = None.
Proof. intros H. unfold file_of. rewrite H. reflexivity. Qed.
Lemma is_reg_file_lookup f n j : lookup f n = Some j -> is_reg_file f n = negb (fdir (inode f j)).
Proof. intros H. unfold is_reg_file. rewrite (file_of_lookup _ _ _ H). reflexivity. Qed.
Lemma is_reg_file_missing f n : lookup f n = None -> is_reg_file f n = false.
Proof. intros H. unfold is_reg_file. rewrite (file_of_missing _ _ H). reflexivity. Qed.

Lemma content_inode f i x : inode f i = x -> content f i = fdata x.
Proof. intros <-. reflexivity. Qed.

(* opening a name that is free creates the file, whatever the open mode *)
Lemma open_trunc_fresh f a gz now : lookup f a = None -> open_trunc f a gz now = create_file f a gz now.
Proof. intros H. unfold open_trunc. rewrite H. reflexivity. Qed.
Lemma open_append_fresh f a now : lookup f a = None -> open_append f a now = create_file f a 0%N now.
Proof. intros H. unfold open_append. rewrite H. reflexivity. Qed.
