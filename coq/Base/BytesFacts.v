(* Facts about the byte-string functions. *)
Require Import FL.Base.Bytes.
Open Scope N_scope.

Lemma beq_spec a b : reflect (a = b) (beq a b).
Proof.
  revert b; induction a as [|x a IH]; intros [|y b]; cbn [beq]; try (constructor; congruence).
  destruct (N.eqb_spec x y) as [->|Hxy]; cbn [andb].
  - destruct (IH b) as [->|Hab]; constructor; congruence.
  - constructor; congruence.
Qed.
Lemma beq_refl a : beq a a = true.
Proof. destruct (beq_spec a a); congruence. Qed.
Lemma beq_eq a b : beq a b = true -> a = b.
Proof. destruct (beq_spec a b); congruence. Qed.
Lemma beq_neq a b : a <> b -> beq a b = false.
Proof. destruct (beq_spec a b); congruence. Qed.
Lemma beq_sym a b : beq a b = beq b a.
Proof. destruct (beq_spec a b), (beq_spec b a); congruence. Qed.

Lemma strip_prefix_spec p s r : strip_prefix p s = Some r -> s = p ++ r.
Proof.
  unfold strip_prefix. destruct (is_prefix p s) eqn:E; [|discriminate]. intros H. injection H as <-.
  revert s E. induction p as [|x p IH]; intros s E; [reflexivity|]. destruct s as [|y s]; [discriminate|].
  cbn [is_prefix] in E. apply andb_prop in E. destruct E as [E1 E2]. apply N.eqb_eq in E1. subst y.
  cbn [length skipn app]. f_equal. apply IH. exact E2.
Qed.
Lemma strip_suffix_spec x s r : strip_suffix x s = Some r -> s = r ++ x.
Proof.
  unfold strip_suffix. destruct (strip_prefix (rev x) (rev s)) as [q|] eqn:E; [|discriminate]. intros H. injection H as <-.
  apply strip_prefix_spec in E. apply (f_equal (@rev N)) in E. rewrite rev_involutive, rev_app_distr, rev_involutive in E. exact E.
Qed.


(* ---- lists ---- *)
Lemma filter_all_true {A} (p : A -> bool) l : (forall x, In x l -> p x = true) -> filter p l = l.
Proof.
  induction l as [|x l IH]; intros H; cbn [filter]; [reflexivity|].
  rewrite (H x (or_introl eq_refl)), IH; [reflexivity|]. intros y Hy. apply H. right. exact Hy.
Qed.
Lemma filter_all_false {A} (p : A -> bool) l : (forall x, In x l -> p x = false) -> filter p l = [].
Proof.
  induction l as [|x l IH]; intros H; cbn [filter]; [reflexivity|].
  rewrite (H x (or_introl eq_refl)). apply IH. intros y Hy. apply H. right. exact Hy.
Qed.
