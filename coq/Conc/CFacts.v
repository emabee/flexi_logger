From Coq Require Import List Arith Lia.
Import ListNotations.
Require Import FL.Conc.CModel.

Lemma nth_upd_eq {A} (l : list A) t x : t < length l -> nth_error (cupd l t x) t = Some x.
Proof. revert t; induction l; intros [|t] H; simpl in *; try lia; auto. apply IHl; lia. Qed.
Lemma nth_upd_ne {A} (l : list A) t t' x : t <> t' -> nth_error (cupd l t x) t' = nth_error l t'.
Proof. revert t t'; induction l; intros [|t] [|t'] H; simpl; auto; try congruence. Qed.
Lemma upd_len {A} (l : list A) t x : length (cupd l t x) = length l.
Proof. revert t; induction l; intros [|t]; simpl; auto. Qed.

Section P.
Variable ml : nat -> nat.
Variable W : nat.
Variable ids : list nat.
Notation g := (g ml W).
Notation Inv := (Inv ml W ids).
Notation tstate := (tstate ml W ids).

Lemma prog_cons i calls : prog code_fixed (i :: calls) = Acq :: Upd i :: SetMax i :: Rel :: prog code_fixed calls.
Proof. reflexivity. Qed.

(* what a thread's state says, by the next step of its code *)
Lemma tstate_inv t s p : tstate t s p ->
  match p with
  | [] => lock s <> Some t
  | Acq :: rest =>
    lock s <> Some t /\ exists i c, rest = Upd i :: SetMax i :: Rel :: prog code_fixed c /\ In i ids /\ incl c ids
  | Upd i :: rest =>
    lock s = Some t /\ In i ids /\ cgate s = g (cspec s) /\ exists c, rest = SetMax i :: Rel :: prog code_fixed c /\ incl c ids
  | SetMax i :: rest =>
    lock s = Some t /\ cspec s = i /\ In i ids /\ exists c, rest = Rel :: prog code_fixed c /\ incl c ids
  | Rel :: rest => lock s = Some t /\ cgate s = g (cspec s) /\ exists c, rest = prog code_fixed c /\ incl c ids
  end.
Proof.
  intros [t0 s0 [|i c] Hn Hc | t0 s0 i c Hl Hi Hc Hg | t0 s0 i c Hl Hs Hi Hc | t0 s0 c Hl Hc Hg].
  - exact Hn.
  - rewrite prog_cons. split; [exact Hn|]. exists i, c. split; [reflexivity|].
    split; [apply Hc; left; reflexivity | intros x Hx; apply Hc; right; exact Hx].
  - eauto 6.
  - eauto 6.
  - eauto.
Qed.

(* a thread that does not hold the lock is idle *)
Lemma not_holder_idle t s p : tstate t s p -> lock s <> Some t -> exists calls, p = prog code_fixed calls /\ incl calls ids.
Proof. intros H N. destruct H as [t s calls Hn Hc | t s i c Hl Hi Hc Hg | t s i c Hl Hs Hi Hc | t s c Hl Hc Hg]; try congruence. eauto. Qed.

(* a step of thread t, which alone may hold the lock before and after, leaves the other threads idle *)
Lemma step_frame s t rest s' :
  (forall t' p, nth_error (pcs s) t' = Some p -> tstate t' s p) ->
  t < length (pcs s) -> pcs s' = cupd (pcs s) t rest ->
  lock s = None \/ lock s = Some t -> lock s' = None \/ lock s' = Some t ->
  tstate t s' rest ->
  forall t' p, nth_error (pcs s') t' = Some p -> tstate t' s' p.
Proof.
  intros Hts Lt Ep Hk Hk' Tt t' p E. rewrite Ep in E. destruct (Nat.eq_dec t' t) as [->|Ne].
  - rewrite nth_upd_eq in E by exact Lt. inversion E; subst p. exact Tt.
  - rewrite nth_upd_ne in E by congruence. destruct (not_holder_idle t' s p (Hts t' p E)) as [c [-> Hc]].
    + destruct Hk as [Hk|Hk]; rewrite Hk; congruence.
    + apply ts_idle; [destruct Hk' as [Hk'|Hk']; rewrite Hk'; congruence | exact Hc].
Qed.

Lemma step_inv s t s' : Inv s -> cstep ml W s t = Some s' -> Inv s'.
Proof.
  intros [Hspec [Hts [Hg Hl]]] St. unfold cstep in St.
  destruct (nth_error (pcs s) t) as [[|m rest]|] eqn:Et; try discriminate.
  assert (Lt : t < length (pcs s)) by (apply nth_error_Some; congruence).
  pose proof (tstate_inv t s _ (Hts t _ Et)) as Tt.
  destruct m as [|i| |i].
  - destruct (lock s) eqn:El; [discriminate|]. inversion St; subst s'; clear St.
    destruct Tt as [_ [i [c [-> [Hi Hc]]]]].
    split; [exact Hspec|]. split; [|split; [discriminate | intros t0 E0; inversion E0; subst; cbn [pcs]; rewrite upd_len; exact Lt]].
    eapply step_frame; [exact Hts | exact Lt | reflexivity | left; exact El | right; reflexivity|].
    apply ts_upd; cbn [cspec cgate lock]; auto.
  - inversion St; subst s'; clear St. destruct Tt as [Hlk [Hi [Hgs [c [-> Hc]]]]].
    split; [exact Hi|]. split; [|split; [cbn [lock]; congruence | intros t0 E0; cbn [pcs]; rewrite upd_len; apply Hl; exact E0]].
    eapply step_frame; [exact Hts | exact Lt | reflexivity | right; exact Hlk | right; exact Hlk|].
    apply ts_set; cbn [cspec cgate lock]; auto.
  - inversion St; subst s'; clear St. destruct Tt as [Hlk [Hgs [c [-> Hc]]]].
    split; [exact Hspec|]. split; [|split; [intros _; exact Hgs | discriminate]].
    eapply step_frame; [exact Hts | exact Lt | reflexivity | right; exact Hlk | left; reflexivity|].
    apply ts_idle; cbn [lock]; [discriminate | exact Hc].
  - inversion St; subst s'; clear St. destruct Tt as [Hlk [Hsp [Hi [c [-> Hc]]]]].
    split; [exact Hspec|]. split; [|split; [cbn [lock]; congruence | intros t0 E0; cbn [pcs]; rewrite upd_len; apply Hl; exact E0]].
    eapply step_frame; [exact Hts | exact Lt | reflexivity | right; exact Hlk | right; exact Hlk|].
    apply ts_rel; cbn [cspec cgate lock]; auto.
Qed.

Lemma run_inv sched : forall s, Inv s -> Inv (crun ml W s sched).
Proof. induction sched as [|t r IH]; intros s I; simpl; auto. apply IH.
  destruct (cstep ml W s t) eqn:E; [eapply step_inv; eauto | exact I]. Qed.

Lemma init_inv s0 threads : In s0 ids -> Forall (fun c => incl c ids) threads -> Inv (cinit ml W code_fixed s0 threads).
Proof. intros H0 Hall. unfold cinit. split; [exact H0|]. split; [|split; [reflexivity | discriminate]].
  intros t p E. cbn in E. rewrite nth_error_map in E. destruct (nth_error threads t) eqn:Et; [|discriminate].
  inversion E; subst p. apply ts_idle; cbn; [discriminate|]. rewrite Forall_forall in Hall. apply Hall. eapply nth_error_In; eauto. Qed.

(* C12 (model with the lock held across both updates): any number of threads and calls, any schedule *)
Theorem C12_consistent s0 threads sched :
  In s0 ids -> Forall (fun c => incl c ids) threads ->
  let s := crun ml W (cinit ml W code_fixed s0 threads) sched in
  done s -> In (cspec s) ids /\ cgate s = g (cspec s) /\ ml (cspec s) <= cgate s.
Proof.
  intros H0 Hall s D. pose proof (run_inv sched _ (init_inv s0 threads H0 Hall)) as [Hs [Hts [Hg Hl]]]. fold s in Hs, Hts, Hg, Hl.
  assert (L : lock s = None).
  { destruct (lock s) as [t|] eqn:El; [|reflexivity]. exfalso.
    pose proof (Hl t eq_refl) as Lt. destruct (nth_error (pcs s) t) as [p|] eqn:E; [|apply nth_error_None in E; lia].
    unfold done in D. rewrite Forall_forall in D. pose proof (D p (nth_error_In _ _ E)) as ->.
    exact (tstate_inv t s [] (Hts t [] E) El). }
  split; [exact Hs|]. rewrite (Hg L). split; [reflexivity|]. unfold CModel.g. lia.
Qed.
End P.
