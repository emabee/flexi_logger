(* JSON string escaping as serde_json does it: it can be undone, and it produces a single line.
   Key-value pairs: the Debug form of the text formats can be undone, the map of the JSON format is sorted strictly by
   key, has the keys of the source and the value of the last occurrence of each key, and decodes back. *)
Require Import FL.Base.Bytes FL.Base.BytesFacts FL.Names.NamesFacts FL.Names.SortFacts FL.Formats.Formats.
Require Import ZifyBool.
From Coq Require Import Sorted.
Open Scope N_scope.

(* every byte value *)
Definition is_byte (c : N) : Prop := c < 256.

(* ---- the 256 byte values, for proofs by a finite sweep ---- *)
Definition all_bytes : list N := Eval vm_compute in map N.of_nat (seq 0 256).

Lemma all_bytes_complete : forall c, c < 256 -> In c all_bytes.
Proof.
  intros c Hc. change all_bytes with (map N.of_nat (seq 0 256)).
  rewrite <- (N2Nat.id c). apply in_map, in_seq. lia.
Qed.

(* ---- "printable": no byte below 32 ---- *)
Definition ok (s : bytes) : Prop := Forall (fun c => 32 <= c) s.

Lemma ok_in s : ok s <-> forall c, In c s -> 32 <= c.
Proof. apply Forall_forall. Qed.

(* for the literal parts of a format *)
Lemma ok_lit s : forallb (N.leb 32) s = true -> ok s.
Proof.
  intros H. apply ok_in. intros c Hc. rewrite forallb_forall in H. apply N.leb_le, H, Hc.
Qed.

Lemma ok_app a b : ok a -> ok b -> ok (a ++ b).
Proof. intros; apply Forall_app; split; assumption. Qed.

Lemma ok_app3 a b c : ok a -> ok b -> ok c -> ok (a ++ b ++ c).
Proof. intros Ha Hb Hc. apply ok_app; [exact Ha | apply ok_app; assumption]. Qed.

Lemma hex_digit_ok n : 32 <= hex_digit n.
Proof. unfold hex_digit. destruct (n <? 10); lia. Qed.

Lemma ok_escape_byte c : ok (json_escape_byte c).
Proof.
  unfold json_escape_byte.
  do 7 (match goal with |- context [if ?b then _ else _] => destruct b end; [apply ok_lit; reflexivity|]).
  destruct (N.ltb_spec c 32) as [L|L].
  - apply (ok_app [92; 117; 48; 48]); [apply ok_lit; reflexivity|]. repeat (constructor; try apply hex_digit_ok).
  - constructor; [exact L | constructor].
Qed.

Lemma ok_escape s : ok (json_escape s).
Proof.
  unfold json_escape. induction s as [|c s IH]; cbn [flat_map].
  - constructor.
  - apply ok_app; [apply ok_escape_byte | exact IH].
Qed.

(* no byte below 32 at all, hence no raw line break *)
Theorem escape_no_control : forall s, Forall is_byte s -> forall c, In c (json_escape s) -> 32 <= c.
Proof. intros s _. apply ok_in, ok_escape. Qed.
Print Assumptions escape_no_control.

(* ---- decoding undoes encoding, for a decoder that reads the text one encoded byte at a time ---- *)
Section Codec.
  Variable enc : N -> bytes.
  Variable decode : nat -> bytes -> option bytes.
  Hypothesis decode_nil : forall fuel, decode fuel [] = Some [].
  (* one encoded byte in front: one unit of fuel decodes it *)
  Hypothesis decode_enc : forall c, c < 256 -> forall f r,
    decode (S f) (enc c ++ r) = match decode f r with Some t => Some (c :: t) | None => None end.
  Hypothesis enc_length : forall c, (1 <= length (enc c))%nat.

  Lemma codec_fuel : forall s, Forall is_byte s ->
    forall fuel, (length s <= fuel)%nat -> decode fuel (flat_map enc s) = Some s.
  Proof.
    induction 1 as [|c s Hc Hs IH]; intros fuel Hf.
    - apply decode_nil.
    - destruct fuel as [|f]; [cbn [length] in Hf; lia|].
      cbn [flat_map]. rewrite (decode_enc c Hc), IH; [reflexivity | cbn [length] in Hf; lia].
  Qed.

  Lemma codec_length s : (length s <= length (flat_map enc s))%nat.
  Proof.
    induction s as [|c s IH]; cbn [flat_map length]; [lia|].
    rewrite app_length. pose proof (enc_length c). lia.
  Qed.

  Theorem codec_roundtrip s : Forall is_byte s ->
    decode (length (flat_map enc s)) (flat_map enc s) = Some s.
  Proof. intros Hs. apply codec_fuel; [exact Hs | apply codec_length]. Qed.
End Codec.

(* The decoders match on byte literals.  A byte other than the backslash takes the last branch of the match: that is
   seen by going through the bits of the backslash, every other bit pattern leaves the match at once. *)
Lemma unescape_plain c f r : c <> 92 ->
  json_unescape (S f) (c :: r)
  = if (c =? 34) || (c <? 32) then None else match json_unescape f r with Some t => Some (c :: t) | None => None end.
Proof.
  intros Hc. destruct c as [|p]; [reflexivity|].
  do 6 (destruct p as [p|p|]; try exact eq_refl).
  destruct p; try reflexivity. congruence.
Qed.

Lemma unescape_u a b f r :
  json_unescape (S f) (92 :: 117 :: 48 :: 48 :: a :: b :: r)
  = match unhex_digit a, unhex_digit b, json_unescape f r with
    | Some x, Some y, Some t => Some ((x * 16 + y) :: t)
    | _, _, _ => None
    end.
Proof. reflexivity. Qed.

Lemma unhex_hex n : n < 16 -> unhex_digit (hex_digit n) = Some n.
Proof.
  intros H. unfold unhex_digit, hex_digit. destruct (N.ltb_spec n 10) as [L|L].
  - replace ((48 <=? 48 + n) && (48 + n <=? 57)) with true by lia. f_equal; lia.
  - replace ((48 <=? 87 + n) && (87 + n <=? 57)) with false by lia.
    replace ((97 <=? 87 + n) && (87 + n <=? 102)) with true by lia. f_equal; lia.
Qed.

Lemma unescape_escape_byte : forall c, c < 256 -> forall f r,
  json_unescape (S f) (json_escape_byte c ++ r)
  = match json_unescape f r with Some t => Some (c :: t) | None => None end.
Proof.
  intros c Hc f r. unfold json_escape_byte.
  destruct (N.eqb_spec c 34) as [->|N34]; [reflexivity|].
  destruct (N.eqb_spec c 92) as [->|N92]; [reflexivity|].
  destruct (N.eqb_spec c 8) as [->|N8]; [reflexivity|].
  destruct (N.eqb_spec c 12) as [->|N12]; [reflexivity|].
  destruct (N.eqb_spec c 10) as [->|N10]; [reflexivity|].
  destruct (N.eqb_spec c 13) as [->|N13]; [reflexivity|].
  destruct (N.eqb_spec c 9) as [->|N9]; [reflexivity|].
  destruct (N.ltb_spec c 32) as [L|L]; cbn [app].
  - rewrite unescape_u, !unhex_hex by (try apply N.div_lt_upper_bound; try apply N.mod_lt; lia).
    rewrite N.mul_comm, <- N.div_mod'. reflexivity.
  - rewrite (unescape_plain c f r N92). replace ((c =? 34) || (c <? 32)) with false by lia. reflexivity.
Qed.

Lemma unescape_nil fuel : json_unescape fuel [] = Some [].
Proof. destruct fuel; reflexivity. Qed.

Lemma escape_byte_length c : (1 <= length (json_escape_byte c))%nat.
Proof.
  unfold json_escape_byte.
  repeat match goal with |- context [if ?b then _ else _] => destruct b end; cbn [length]; lia.
Qed.

(* decoding undoes escaping (so a quote in the escaped text is one that a backslash escapes) *)
Theorem unescape_escape : forall s, Forall is_byte s ->
  json_unescape (length (json_escape s)) (json_escape s) = Some s.
Proof. exact (codec_roundtrip _ _ unescape_nil unescape_escape_byte escape_byte_length). Qed.
Print Assumptions unescape_escape.

(* ---- the JSON line ---- *)

Lemma dec_digits_range fuel : forall n acc,
  Forall (fun c => 48 <= c <= 57) acc -> Forall (fun c => 48 <= c <= 57) (dec_digits fuel n acc).
Proof.
  induction fuel as [|f IH]; intros n acc Hacc; cbn [dec_digits]; [exact Hacc|].
  assert (Forall (fun c => 48 <= c <= 57) ((48 + n mod 10) :: acc)) as H.
  { constructor; [|exact Hacc]. pose proof (N.mod_upper_bound n 10). lia. }
  destruct (n <? 10); [exact H | apply IH, H].
Qed.

Lemma dec_range n c : In c (dec n) -> 48 <= c <= 57.
Proof.
  intros Hc. pose proof (dec_digits_range (S (N.to_nat (N.log2 n))) n [] (Forall_nil _)) as H.
  rewrite Forall_forall in H. apply H, Hc.
Qed.

Lemma ok_dec n : ok (dec n).
Proof. apply ok_in. intros c Hc. apply dec_range in Hc. lia. Qed.

Lemma join_in sep l c : In c (join sep l) -> In c sep \/ exists x, In x l /\ In c x.
Proof.
  induction l as [|x l IH]; cbn [join]; intros H; [destruct H|].
  destruct l as [|y l].
  - right; exists x; split; [left; reflexivity | exact H].
  - apply in_app_or in H. destruct H as [H|H].
    + right; exists x; split; [left; reflexivity | exact H].
    + apply in_app_or in H. destruct H as [H|H]; [left; exact H|].
      destruct (IH H) as [H'|[z [Hz Hc]]]; [left; exact H'|].
      right; exists z; split; [right; exact Hz | exact Hc].
Qed.

Lemma ok_join sep l : ok sep -> Forall ok l -> ok (join sep l).
Proof.
  intros Hsep Hl. apply ok_in. intros c Hc.
  apply join_in in Hc. destruct Hc as [Hc|[x [Hx Hc]]].
  - exact (proj1 (ok_in sep) Hsep c Hc).
  - rewrite Forall_forall in Hl. exact (proj1 (ok_in x) (Hl x Hx) c Hc).
Qed.

(* an opening text, the parts with a separator between them, a closing text *)
Lemma ok_braced o sep l c : ok o -> ok sep -> Forall ok l -> ok c -> ok (o ++ join sep l ++ c).
Proof. intros Ho Hsep Hl Hc. apply ok_app3; [exact Ho | apply ok_join; assumption | exact Hc]. Qed.

Lemma ok_json_string s : ok (json_string s).
Proof. apply ok_app3; [apply ok_lit; reflexivity | apply ok_escape | apply ok_lit; reflexivity]. Qed.

Lemma ok_json_field k v : ok v -> ok (json_field k v).
Proof. intros Hv. apply ok_app3; [apply ok_json_string | apply ok_lit; reflexivity | exact Hv]. Qed.

Lemma ok_opt_field k o : Forall ok (opt_field k o).
Proof.
  destruct o; cbn [opt_field]; [|constructor].
  apply Forall_cons; [|apply Forall_nil]. apply ok_json_field, ok_json_string.
Qed.

Lemma ok_json_kv_value v : ok (json_kv_value v).
Proof. destruct v as [n|s]; cbn [json_kv_value]; [apply ok_dec | apply ok_json_string]. Qed.

Lemma ok_json_kv_object m : ok (json_kv_object m).
Proof.
  apply ok_braced; try (apply ok_lit; reflexivity).
  apply Forall_map, Forall_forall. intros [k v] _. exact (ok_json_field k _ (ok_json_kv_value v)).
Qed.

Lemma ok_json_line ts r : ok (json_line ts r).
Proof.
  apply ok_braced; try (apply ok_lit; reflexivity).
  repeat (apply Forall_app; split).
  - repeat (apply Forall_cons; [apply ok_json_field, ok_json_string|]). apply Forall_nil.
  - apply ok_opt_field.
  - apply ok_opt_field.
  - apply ok_opt_field.
  - destruct (fr_line r); [|apply Forall_nil].
    apply Forall_cons; [apply ok_json_field, ok_dec | apply Forall_nil].
  - destruct (kv_map (fr_kv r)) as [|p m]; [apply Forall_nil|].
    apply Forall_cons; [apply ok_json_field, ok_json_kv_object | apply Forall_nil].
  - apply Forall_cons; [apply ok_json_field, ok_json_string | apply Forall_nil].
Qed.

(* the texts of the key-value pairs are byte strings: every key and every string value *)
Definition kvval_bytes_ok (v : kvval) : Prop := match v with KInt _ => True | KStr s => Forall is_byte s end.
Definition kv_bytes_ok (kvs : list (bytes * kvval)) : Prop :=
  Forall (fun kv : bytes * kvval => Forall is_byte (fst kv) /\ kvval_bytes_ok (snd kv)) kvs.

(* the whole JSON line of a record has no control character: one record = one line, whatever the texts and the
   key-value pairs are *)
Theorem json_line_single_line : forall ts r,
  Forall is_byte ts -> Forall is_byte (fr_msg r) ->
  (forall m, fr_module r = Some m -> Forall is_byte m) -> (forall f, fr_file r = Some f -> Forall is_byte f) ->
  (forall t, fr_thread r = Some t -> Forall is_byte t) ->
  kv_bytes_ok (fr_kv r) ->
  forall c, In c (json_line ts r) -> 32 <= c.
Proof. intros ts r _ _ _ _ _ _. apply ok_in, ok_json_line. Qed.
Print Assumptions json_line_single_line.

(* ====================================================================================================== *)
(* Key-value pairs                                                                                         *)
(* ====================================================================================================== *)

(* ---- the text formats: Rust's Debug form of a string can be undone ---- *)

Lemma byte_sweep_b (p : N -> bool) : forallb p all_bytes = true -> forall c, c < 256 -> p c = true.
Proof.
  intros H c Hc. rewrite forallb_forall in H. apply H, all_bytes_complete, Hc.
Qed.

(* the decoder: the specification of "is the Debug form of" *)
Fixpoint undebug (fuel : nat) (s : bytes) : option bytes :=
  match fuel with
  | O => match s with [] => Some [] | _ => None end
  | S f =>
    match s with
    | [] => Some []
    | 92 :: 117 :: 123 :: a :: 125 :: r =>
      match unhex_digit a, undebug f r with
      | Some x, Some t => Some (x :: t)
      | _, _ => None
      end
    | 92 :: 117 :: 123 :: a :: b :: 125 :: r =>
      match unhex_digit a, unhex_digit b, undebug f r with
      | Some x, Some y, Some t => Some ((x * 16 + y) :: t)
      | _, _, _ => None
      end
    | 92 :: c :: r =>
      match (if c =? 34 then Some 34 else if c =? 92 then Some 92 else if c =? 110 then Some 10 else if c =? 114 then Some 13
             else if c =? 116 then Some 9 else if c =? 48 then Some 0 else None), undebug f r with
      | Some x, Some t => Some (x :: t)
      | _, _ => None
      end
    | c :: r => if (c =? 34) || (c =? 92) || (c <? 32) || (c =? 127) then None
                else match undebug f r with Some t => Some (c :: t) | None => None end
    end
  end.

Lemma undebug_plain c f r : c <> 92 ->
  undebug (S f) (c :: r)
  = if (c =? 34) || (c =? 92) || (c <? 32) || (c =? 127) then None
    else match undebug f r with Some t => Some (c :: t) | None => None end.
Proof.
  intros Hc. destruct c as [|p]; [reflexivity|].
  do 6 (destruct p as [p|p|]; try exact eq_refl).
  destruct p; try reflexivity. congruence.
Qed.

Lemma undebug_u1 a f r :
  undebug (S f) (92 :: 117 :: 123 :: a :: 125 :: r)
  = match unhex_digit a, undebug f r with Some x, Some t => Some (x :: t) | _, _ => None end.
Proof. reflexivity. Qed.

(* the second digit must not be taken for the closing brace: again by the bits, of the brace this time *)
Lemma undebug_u2 a b f r : b <> 125 ->
  undebug (S f) (92 :: 117 :: 123 :: a :: b :: 125 :: r)
  = match unhex_digit a, unhex_digit b, undebug f r with
    | Some x, Some y, Some t => Some ((x * 16 + y) :: t)
    | _, _, _ => None
    end.
Proof.
  intros Hb. destruct b as [|p]; [reflexivity|].
  do 6 (destruct p as [p|p|]; try exact eq_refl).
  destruct p; try reflexivity. congruence.
Qed.

Lemma hexd_range n : n < 16 -> 48 <= hexd n <= 102.
Proof. intros Hn. unfold hexd. destruct (N.ltb_spec n 10); lia. Qed.

(* one byte in Debug form in front: one unit of fuel decodes it *)
Lemma undebug_debug_byte : forall c, c < 256 -> forall f r,
  undebug (S f) (debug_byte c ++ r)
  = match undebug f r with Some t => Some (c :: t) | None => None end.
Proof.
  intros c Hc f r. unfold debug_byte.
  destruct (N.eqb_spec c 34) as [->|N34]; [reflexivity|].
  destruct (N.eqb_spec c 92) as [->|N92]; [reflexivity|].
  destruct (N.eqb_spec c 10) as [->|N10]; [reflexivity|].
  destruct (N.eqb_spec c 13) as [->|N13]; [reflexivity|].
  destruct (N.eqb_spec c 9) as [->|N9]; [reflexivity|].
  destruct (N.eqb_spec c 0) as [->|N0]; [reflexivity|].
  destruct ((c <? 32) || (c =? 127)) eqn:Ctl.
  - assert (D : c / 16 < 16) by (apply N.div_lt_upper_bound; lia).
    assert (M : c mod 16 < 16) by (apply N.mod_lt; lia).
    change hexd with hex_digit. destruct (N.ltb_spec c 16) as [L|L]; cbn [app].
    + rewrite undebug_u1, (unhex_hex c L). reflexivity.
    + pose proof (hexd_range _ M). rewrite undebug_u2 by (change hex_digit with hexd; lia).
      rewrite (unhex_hex _ D), (unhex_hex _ M), N.mul_comm, <- N.div_mod'. reflexivity.
  - cbn [app]. rewrite (undebug_plain c f r N92).
    replace ((c =? 34) || (c =? 92) || (c <? 32) || (c =? 127)) with false by lia. reflexivity.
Qed.

Lemma undebug_nil fuel : undebug fuel [] = Some [].
Proof. destruct fuel; reflexivity. Qed.

(* the forms of a byte: the escaped quote, another two-byte escape, \u{h} or \u{hh}, the byte itself *)
Lemma debug_byte_cases c :
  debug_byte c = [92; 34]
  \/ (exists e, debug_byte c = [92; e] /\ 48 <= e <= 116)
  \/ (exists h, debug_byte c = 92 :: 117 :: 123 :: h ++ [125] /\ Forall (fun d => 48 <= d <= 102) h)
  \/ (debug_byte c = [c] /\ 32 <= c /\ c <> 127 /\ c <> 34).
Proof.
  unfold debug_byte.
  destruct (N.eqb_spec c 34); [left; reflexivity|]. right.
  destruct (N.eqb_spec c 92); [left; eexists; split; [reflexivity | lia]|].
  destruct (N.eqb_spec c 10); [left; eexists; split; [reflexivity | lia]|].
  destruct (N.eqb_spec c 13); [left; eexists; split; [reflexivity | lia]|].
  destruct (N.eqb_spec c 9); [left; eexists; split; [reflexivity | lia]|].
  destruct (N.eqb_spec c 0); [left; eexists; split; [reflexivity | lia]|]. right.
  destruct ((c <? 32) || (c =? 127)) eqn:Ctl; [left | right; repeat split; lia].
  assert (D : c / 16 < 16) by (apply N.div_lt_upper_bound; lia).
  assert (M : c mod 16 < 16) by (apply N.mod_lt; lia).
  destruct (N.ltb_spec c 16); eexists; (split; [reflexivity|]); repeat constructor; apply hexd_range; assumption.
Qed.

Lemma debug_byte_length c : (1 <= length (debug_byte c))%nat.
Proof.
  destruct (debug_byte_cases c) as [E|[[e [E _]]|[[h [E _]]|[E _]]]]; rewrite E; cbn [length]; lia.
Qed.

Theorem undebug_debug : forall s, Forall is_byte s ->
  undebug (length (flat_map debug_byte s)) (flat_map debug_byte s) = Some s.
Proof. exact (codec_roundtrip _ _ undebug_nil undebug_debug_byte debug_byte_length). Qed.

(* the whole Debug form, with its two delimiters *)
Definition undebug_str (t : bytes) : option bytes :=
  match t with
  | c :: r => if c =? 34
              then match rev r with
                   | e :: q => if e =? 34 then undebug (length q) (rev q) else None
                   | [] => None
                   end
              else None
  | [] => None
  end.

Theorem undebug_str_debug : forall s, Forall is_byte s -> undebug_str (debug_str s) = Some s.
Proof.
  intros s Hs. unfold debug_str, undebug_str. cbn [app]. rewrite N.eqb_refl.
  rewrite rev_unit, N.eqb_refl, rev_length, rev_involutive. apply undebug_debug, Hs.
Qed.

(* hence the Debug form determines the string *)
Theorem debug_str_inj : forall a b, Forall is_byte a -> Forall is_byte b -> debug_str a = debug_str b -> a = b.
Proof.
  intros a b Ha Hb H. pose proof (undebug_str_debug a Ha) as Ea. rewrite H, (undebug_str_debug b Hb) in Ea.
  injection Ea as Ea. symmetry. exact Ea.
Qed.
Print Assumptions debug_str_inj.

(* the Debug form has no control character and no DEL, whatever the string is; a quote is there only in the escape backslash-quote *)
Lemma debug_byte_bytes c d : In d (debug_byte c) -> 32 <= d /\ d <> 127 /\ (d = 34 -> debug_byte c = [92; 34]).
Proof.
  destruct (debug_byte_cases c) as [E|[[e [E He]]|[[h [E Hh]]|[E Hc]]]]; rewrite E; cbn [In]; intros H.
  - destruct H as [<-|[<-|[]]]; repeat split; lia.
  - destruct H as [<-|[<-|[]]]; repeat split; lia.
  - destruct H as [<-|[<-|[<-|H]]]; [repeat split; lia ..|]. apply in_app_or in H. destruct H as [H|[<-|[]]]; [|repeat split; lia].
    rewrite Forall_forall in Hh. specialize (Hh d H). repeat split; lia.
  - destruct H as [<-|[]]. repeat split; lia.
Qed.

Lemma debug_byte_printable c d : In d (debug_byte c) -> 32 <= d /\ d <> 127.
Proof. intros H. destruct (debug_byte_bytes c d H) as (A & B & _). split; assumption. Qed.

Theorem debug_str_printable : forall s d, In d (debug_str s) -> 32 <= d /\ d <> 127.
Proof.
  intros s d H. unfold debug_str in H. apply in_app_or in H. destruct H as [H|H].
  - cbn [In] in H. destruct H as [H|[]]. subst d. lia.
  - apply in_app_or in H. destruct H as [H|H].
    + apply in_flat_map in H. destruct H as [c [_ H]]. exact (debug_byte_printable c d H).
    + cbn [In] in H. destruct H as [H|[]]. subst d. lia.
Qed.

Lemma debug_byte_quote c : debug_byte c = [92; 34] \/ ~ In 34 (debug_byte c).
Proof.
  destruct (in_dec N.eq_dec 34 (debug_byte c)) as [I|I]; [left | right; exact I].
  exact (proj2 (proj2 (debug_byte_bytes c 34 I)) eq_refl).
Qed.

Theorem debug_str_quotes : forall s,
  debug_str s = [34] ++ concat (map debug_byte s) ++ [34]
  /\ Forall (fun t => t = [92; 34] \/ ~ In 34 t) (map debug_byte s).
Proof.
  intros s. split.
  - unfold debug_str. rewrite flat_map_concat_map. reflexivity.
  - rewrite Forall_forall. intros t Ht. apply in_map_iff in Ht. destruct Ht as [c [Hc _]]. subst t. apply debug_byte_quote.
Qed.

(* the value of a pair in the text formats: a number in decimal or a string in Debug form; it can be read back *)
Definition kv_undebug (t : bytes) : option kvval :=
  match t with
  | c :: _ => if c =? 34 then match undebug_str t with Some s => Some (KStr s) | None => None end
              else Some (KInt (dec_value t))
  | [] => None
  end.

Theorem kv_text_roundtrip : forall v, kvval_bytes_ok v -> kv_undebug (kv_debug v) = Some v.
Proof.
  intros [n|s] Hv; cbn [kv_debug].
  - destruct (dec n) as [|c r] eqn:E.
    + exfalso. exact (dec_digits_nonempty _ _ _ E).
    + assert (48 <= c <= 57) as Hc by (apply (dec_range n); rewrite E; left; reflexivity).
      unfold kv_undebug. destruct (N.eqb_spec c 34) as [Hq|_]; [lia|].
      rewrite <- E, dec_value_dec. reflexivity.
  - cbn [kvval_bytes_ok] in Hv. unfold kv_undebug.
    rewrite (undebug_str_debug s Hv). unfold debug_str. cbn [app]. rewrite N.eqb_refl. reflexivity.
Qed.
Print Assumptions kv_text_roundtrip.

Corollary kv_debug_inj : forall v w, kvval_bytes_ok v -> kvval_bytes_ok w -> kv_debug v = kv_debug w -> v = w.
Proof.
  intros v w Hv Hw H. pose proof (kv_text_roundtrip v Hv) as E. rewrite H, (kv_text_roundtrip w Hw) in E.
  injection E as E. symmetry. exact E.
Qed.

(* the pairs are rendered in the order of the source, each as key=value, between "{" and "} " *)
Lemma kv_text_nil : kv_text [] = [].
Proof. reflexivity. Qed.
Lemma kv_text_cons p kvs :
  kv_text (p :: kvs)
  = [123] ++ join [44; 32] (map (fun kv : bytes * kvval => fst kv ++ [61] ++ kv_debug (snd kv)) (p :: kvs)) ++ [125; 32].
Proof. reflexivity. Qed.

(* the pairs do not break the line: when the keys have no control character the text of the pairs has none *)
Lemma ok_kv_debug v : ok (kv_debug v).
Proof.
  destruct v as [n|s]; cbn [kv_debug]; [apply ok_dec|].
  apply ok_in. intros d Hd. apply debug_str_printable in Hd. lia.
Qed.

Theorem kv_text_single_line : forall kvs, Forall (fun kv : bytes * kvval => ok (fst kv)) kvs -> ok (kv_text kvs).
Proof.
  intros [|p kvs] Hk; [constructor|]. rewrite kv_text_cons.
  apply ok_braced; try (apply ok_lit; reflexivity).
  apply Forall_map. revert Hk. apply Forall_impl. intros kv Hkv.
  apply ok_app3; [exact Hkv | apply ok_lit; reflexivity | apply ok_kv_debug].
Qed.

(* ---- the JSON format: the map of the pairs ---- *)

(* strictly ascending keys *)
Definition kv_lt (a b : bytes * kvval) : Prop := lex_lt (fst a) (fst b) = true.

(* the value of a key: the first pair with that key *)
Fixpoint assoc (k : bytes) (l : list (bytes * kvval)) : option kvval :=
  match l with
  | [] => None
  | (k', v) :: r => if beq k k' then Some v else assoc k r
  end.

Lemma assoc_app k a b : assoc k (a ++ b) = match assoc k a with Some v => Some v | None => assoc k b end.
Proof.
  induction a as [|[k' v'] a IH]; cbn [app assoc]; [reflexivity|]. destruct (beq k k'); [reflexivity | exact IH].
Qed.

Lemma assoc_some_in k v l : assoc k l = Some v -> In (k, v) l.
Proof.
  induction l as [|[k' v'] l IH]; cbn [assoc]; [discriminate|].
  destruct (beq_spec k k') as [Hk|Hk]; intros H.
  - injection H as H. subst. left; reflexivity.
  - right; apply IH, H.
Qed.

Lemma assoc_none_iff k l : assoc k l = None <-> ~ In k (map fst l).
Proof.
  induction l as [|[k' v'] l IH]; cbn [assoc map In fst].
  - split; [intros _ H; exact H | reflexivity].
  - destruct (beq_spec k k') as [Hk|Hk].
    + split; [discriminate | intros H; exfalso; apply H; left; symmetry; exact Hk].
    + rewrite IH. split; [intros H [H'|H']; [apply Hk; symmetry; exact H' | exact (H H')] | intros H H'; apply H; right; exact H'].
Qed.

Lemma assoc_in_iff k l : In k (map fst l) <-> assoc k l <> None.
Proof.
  pose proof (assoc_none_iff k l) as H. destruct (assoc k l) as [v|].
  - split; [discriminate|]. intros _. destruct (in_dec (list_eq_dec N.eq_dec) k (map fst l)) as [Hi|Hn]; [exact Hi|].
    apply H in Hn. discriminate.
  - split; [intros Hi; exfalso; exact (proj1 H eq_refl Hi) | congruence].
Qed.

Lemma in_assoc_nodup k v l : NoDup (map fst l) -> In (k, v) l -> assoc k l = Some v.
Proof.
  induction l as [|[k' v'] l IH]; cbn [map fst assoc]; intros Hnd Hin; [destruct Hin|].
  inversion Hnd as [|x xs Hnotin Hnd']; subst. destruct Hin as [Hin|Hin].
  - injection Hin as Hk Hv. subst. rewrite beq_refl. reflexivity.
  - destruct (beq_spec k k') as [Hk|Hk]; [|apply IH; assumption].
    subst k'. exfalso. apply Hnotin. apply in_map_iff. exists (k, v). split; [reflexivity | exact Hin].
Qed.

(* inserting into the map: the new key gets the new value, every other key keeps its value *)
Lemma kv_insert_assoc k v m k0 : assoc k0 (kv_insert k v m) = if beq k0 k then Some v else assoc k0 m.
Proof.
  induction m as [|[k' v'] m IH]; cbn [kv_insert assoc]; [reflexivity|].
  destruct (beq_spec k k') as [Hk|Hk].
  - subst k'. cbn [assoc]. destruct (beq k0 k); reflexivity.
  - destruct (lex_le k k'); cbn [assoc]; [reflexivity|]. rewrite IH.
    destruct (beq_spec k0 k') as [H1|H1], (beq_spec k0 k) as [H2|H2]; try reflexivity. exfalso. apply Hk. congruence.
Qed.

Lemma kv_insert_hd a k v m : HdRel kv_lt a m -> kv_lt a (k, v) -> HdRel kv_lt a (kv_insert k v m).
Proof.
  destruct m as [|[k' v'] r]; cbn [kv_insert]; intros H1 H2; [constructor; exact H2|].
  destruct (beq k k'); [constructor; exact H2|].
  destruct (lex_le k k'); constructor; [exact H2|]. inversion H1; assumption.
Qed.

Lemma kv_insert_sorted k v m : Sorted kv_lt m -> Sorted kv_lt (kv_insert k v m).
Proof.
  induction m as [|[k' v'] r IH]; intros Hs; cbn [kv_insert]; [repeat constructor|].
  inversion Hs as [|x xs Hr Hh]; subst. destruct (beq_spec k k') as [Hk|Hk].
  - subst k'. constructor; [exact Hr|]. destruct Hh as [|b l Hb]; constructor. exact Hb.
  - destruct (lex_le k k') eqn:Ele; unfold lex_le in Ele.
    + apply negb_true_iff in Ele. constructor; [exact Hs|]. constructor. unfold kv_lt; cbn [fst].
      destruct (lex_lt k k') eqn:E; [reflexivity|]. exfalso; apply Hk, lex_lt_connex; assumption.
    + apply negb_false_iff in Ele. constructor; [apply IH, Hr|]. apply kv_insert_hd; [exact Hh | exact Ele].
Qed.

Lemma kv_fold_sorted l : forall m, Sorted kv_lt m ->
  Sorted kv_lt (fold_left (fun m kv => kv_insert (fst kv) (snd kv) m) l m).
Proof.
  induction l as [|[k v] l IH]; intros m Hm; cbn [fold_left fst snd]; [exact Hm|]. apply IH, kv_insert_sorted, Hm.
Qed.

Lemma kv_fold_assoc k l : forall m,
  assoc k (fold_left (fun m kv => kv_insert (fst kv) (snd kv) m) l m)
  = match assoc k (rev l) with Some v => Some v | None => assoc k m end.
Proof.
  induction l as [|[k' v'] l IH]; intros m; cbn [fold_left fst snd rev]; [reflexivity|].
  rewrite IH, assoc_app, kv_insert_assoc. cbn [assoc]. destruct (assoc k (rev l)); [reflexivity|].
  destruct (beq k k'); reflexivity.
Qed.

(* (1) the map is sorted strictly by key, hence no key occurs twice *)
Theorem kv_map_sorted : forall l, Sorted kv_lt (kv_map l).
Proof. intros l. unfold kv_map. apply kv_fold_sorted. constructor. Qed.

Theorem kv_map_strongly_sorted : forall l, StronglySorted kv_lt (kv_map l).
Proof.
  intros l. apply Sorted_StronglySorted; [|apply kv_map_sorted].
  intros x y z Hxy Hyz. exact (lex_lt_trans _ _ _ Hxy Hyz).
Qed.

Lemma strongly_sorted_nodup m : StronglySorted kv_lt m -> NoDup (map fst m).
Proof.
  induction 1 as [|a m Hs IH Ha]; cbn [map]; constructor; [|exact IH].
  intros Hin. apply in_map_iff in Hin. destruct Hin as [b [Hb Hin]]. rewrite Forall_forall in Ha.
  specialize (Ha b Hin). unfold kv_lt in Ha. rewrite Hb, lex_lt_irrefl in Ha. discriminate.
Qed.

Theorem kv_map_nodup : forall l, NoDup (map fst (kv_map l)).
Proof. intros l. apply strongly_sorted_nodup, kv_map_strongly_sorted. Qed.

(* (2) each key has the value of its LAST occurrence in the source *)
Theorem kv_map_lookup : forall k l, assoc k (kv_map l) = assoc k (rev l).
Proof.
  intros k l. unfold kv_map. rewrite kv_fold_assoc. cbn [assoc]. destruct (assoc k (rev l)); reflexivity.
Qed.

(* (3) the keys are exactly the keys of the source *)
Theorem kv_map_keys : forall k l, In k (map fst (kv_map l)) <-> In k (map fst l).
Proof.
  intros k l. rewrite !assoc_in_iff, kv_map_lookup, <- !assoc_in_iff, map_rev. symmetry. apply in_rev.
Qed.

(* the pairs of the map are the pairs (key, value at its last occurrence) *)
Theorem kv_map_in : forall k v l, In (k, v) (kv_map l) <-> assoc k (rev l) = Some v.
Proof.
  intros k v l. rewrite <- kv_map_lookup. split.
  - apply in_assoc_nodup, kv_map_nodup.
  - apply assoc_some_in.
Qed.

Lemma kv_map_incl p l : In p (kv_map l) -> In p l.
Proof.
  destruct p as [k v]. intros H. apply kv_map_in in H. apply assoc_some_in in H. apply in_rev, H.
Qed.

(* the object is left out exactly when the record has no pairs *)
Theorem kv_map_nil_iff : forall l, kv_map l = [] <-> l = [].
Proof.
  intros l. split; [|intros H; subst; reflexivity].
  destruct l as [|[k v] l]; [reflexivity|]. intros H.
  assert (In k (map fst (kv_map ((k, v) :: l)))) as Hin by (apply kv_map_keys; left; reflexivity).
  rewrite H in Hin. destruct Hin.
Qed.

Print Assumptions kv_map_sorted.
Print Assumptions kv_map_lookup.
Print Assumptions kv_map_keys.

(* ---- the JSON format: the object of the pairs decodes back ---- *)

Lemma kv_bytes_ok_map l : kv_bytes_ok l -> kv_bytes_ok (kv_map l).
Proof.
  unfold kv_bytes_ok. rewrite !Forall_forall. intros H p Hp. apply H, kv_map_incl, Hp.
Qed.

(* the object is "{" key:value,... "}" over the sorted map (by definition) *)
Lemma json_kv_object_shape m :
  json_kv_object m
  = [123] ++ join [44] (map (fun kv : bytes * kvval => json_string (fst kv) ++ [58] ++ json_kv_value (snd kv)) m) ++ [125].
Proof. reflexivity. Qed.

(* where it sits in the line: directly before "text"; and it is left out when there are no pairs *)
Lemma json_line_kv ts r :
  json_line ts r
  = [123] ++ join [44]
      ([json_field k_level (json_string (level_name (fr_level r))); json_field k_timestamp (json_string ts)]
       ++ opt_field k_thread (fr_thread r) ++ opt_field k_module_path (fr_module r) ++ opt_field k_file (fr_file r)
       ++ match fr_line r with Some n => [json_field k_line (dec n)] | None => [] end
       ++ (if match fr_kv r with [] => true | _ => false end then []
           else [json_field k_kv (json_kv_object (kv_map (fr_kv r)))])
       ++ [json_field k_text (json_string (fr_msg r))])
    ++ [125].
Proof.
  unfold json_line. destruct (fr_kv r) as [|p l] eqn:E; [reflexivity|].
  destruct (kv_map (p :: l)) as [|q m] eqn:Em; [|reflexivity].
  exfalso. pose proof (proj1 (kv_map_nil_iff (p :: l)) Em) as Hnil. discriminate Hnil.
Qed.

(* every key and every string value is recovered exactly by JSON decoding, every number by reading the decimal *)
Theorem json_kv_roundtrip : forall r, kv_bytes_ok (fr_kv r) ->
  forall k v, In (k, v) (kv_map (fr_kv r)) ->
    json_unescape (length (json_escape k)) (json_escape k) = Some k
    /\ match v with
       | KStr s => json_kv_value v = json_string s /\ json_unescape (length (json_escape s)) (json_escape s) = Some s
       | KInt n => json_kv_value v = dec n /\ dec_value (dec n) = n
       end.
Proof.
  intros r Hok k v Hin. apply kv_bytes_ok_map in Hok. unfold kv_bytes_ok in Hok. rewrite Forall_forall in Hok.
  destruct (Hok (k, v) Hin) as [Hk Hv]. cbn [fst snd] in Hk, Hv. split; [apply unescape_escape, Hk|].
  destruct v as [n|s]; cbn [json_kv_value]; (split; [reflexivity|]).
  - apply dec_value_dec.
  - apply unescape_escape, Hv.
Qed.
Print Assumptions json_kv_roundtrip.
