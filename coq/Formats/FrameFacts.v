(* Framing: what the outputs receive from a record that logs nothing from its Display. *)
Require Import FL.Base.Bytes FL.Formats.Formats.
Open Scope nat_scope.

Lemma output_seq o e f n start :
  output_of o e (List.map (fun i => (i, f)) (seq start n)) = if Nat.leb start o && Nat.ltb o (start + n) then f ++ e else [].
Proof.
  revert start. induction n as [|n IH]; intros start; cbn [seq List.map output_of flat_map].
  - destruct (Nat.leb_spec start o), (Nat.ltb_spec o (start + 0)); cbn [andb]; try reflexivity; lia.
  - fold (output_of o e (List.map (fun i => (i, f)) (seq (S start) n))). rewrite IH. cbn [fst snd].
    destruct (Nat.eqb_spec start o) as [->|N].
    + rewrite Nat.leb_refl. destruct (Nat.leb_spec (S o) o); [lia|]. cbn [andb app].
      destruct (Nat.ltb_spec o (o + S n)); [rewrite app_nil_r; reflexivity | lia].
    + cbn [app]. destruct (Nat.leb_spec (S start) o), (Nat.leb_spec start o), (Nat.ltb_spec o (S start + n)), (Nat.ltb_spec o (start + S n));
        cbn [andb]; try reflexivity; lia.
Qed.

Lemma log_events_leaf n k ts r :
  log_events n k ts (RNode r []) = List.map (fun i => (i, format_record k false ts r)) (seq 0 n).
Proof.
  cbn [log_events]. generalize 0. induction n as [|n IH]; intros s; cbn [seq flat_map List.map app]; [reflexivity|].
  rewrite IH. reflexivity.
Qed.

Lemma output_leaf n k ts r o ending :
  output_of o ending (log_events n k ts (RNode r [])) = if Nat.ltb o n then format_record k false ts r ++ ending else [].
Proof. rewrite log_events_leaf, output_seq. reflexivity. Qed.
