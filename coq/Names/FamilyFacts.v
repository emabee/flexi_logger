(* The family test of the listing (infix_candidate / filter_files) against the documented name pattern, and the
   round trip between building a name and recognising it. *)
Require Import FL.Base.Bytes FL.Base.BytesFacts FL.Base.PathName FL.Fs.Fs FL.Names.FileSpec FL.Oracles.ReaderOrder.
Require Export FL.Names.NamesFacts.
Import String.StringSyntax.
Delimit Scope string_scope with string.
Open Scope nat_scope.

Definition no_dot (s : bytes) : Prop := ~ In dot s.
Definition restart_part (rs : bytes) : Prop :=
  rs = [] \/ exists d, rs = dot :: restart_word ++ d /\ 4 <= length d /\ all_digits d = true.

(* the documented pattern of a (plain) family member: fixed [_] infix [.restart-NNNN] [.suffix] *)
Definition family_plain (sp : file_spec) (fixed name infix : bytes) : Prop :=
  exists rs, restart_part rs /\ infix <> [] /\ no_dot infix /\
    name = (match fixed with [] => [] | _ => fixed ++ [uscore] end) ++ infix ++ rs
           ++ (match fsfx sp with Some s => dot :: s | None => [] end).

Lemma tail_ok_spec tail : tail_ok tail = true <->
  exists d, tail = restart_word ++ d /\ 4 <= length d /\ all_digits d = true.
Proof.
  unfold tail_ok. split.
  - destruct (strip_prefix restart_word tail) as [d|] eqn:E; [|discriminate]. intros H.
    apply andb_prop in H. destruct H as [H1 H2]. apply strip_prefix_spec in E.
    exists d. split; [exact E|]. split; [apply Nat.leb_le; exact H1|exact H2].
  - intros [d [-> [H1 H2]]]. rewrite strip_prefix_app. apply Nat.leb_le in H1. rewrite H1, H2. reflexivity.
Qed.

(* ---------- the family test, reduced to its core ---------- *)

(* the part of infix_candidate after the suffixes have been removed *)
Definition cand_core (fixed st : bytes) : option bytes :=
  match (match fixed with [] => Some st | _ => strip_prefix (fixed ++ [uscore]) st end) with
  | None => None
  | Some [] => None
  | Some rest =>
    match find_byte dot rest with
    | None => Some rest
    | Some e => if tail_ok (skipn (S e) rest) then Some (firstn e rest) else None
    end
  end.

(* plain listing: the gz special case cannot apply when the listing suffix is the family's own *)
Lemma infix_candidate_plain o fixed name :
  infix_candidate o o fixed name =
  match (match o with Some l => strip_suffix (dot :: l) name | None => Some name end) with
  | None => None
  | Some st => cand_core fixed st
  end.
Proof.
  unfold infix_candidate, cand_core. destruct o as [l|].
  - destruct (strip_suffix (dot :: l) name) as [st|]; [|reflexivity].
    rewrite andb_negb_r. reflexivity.
  - reflexivity.
Qed.

Lemma strip_fixed_iff fixed st rest :
  (match fixed with [] => Some st | _ => strip_prefix (fixed ++ [uscore]) st end) = Some rest
  <-> st = under fixed ++ rest.
Proof.
  unfold under. destruct fixed as [|f0 fr].
  - cbn [app]. split; [intros H; injection H as ->; reflexivity|intros ->; reflexivity].
  - apply strip_prefix_iff.
Qed.

(* exact description of what the core accepts; note `infix ++ rs <> []`, not `infix <> []` *)
Lemma cand_core_spec fixed st infix :
  cand_core fixed st = Some infix <->
  exists rs, restart_part rs /\ no_dot infix /\ infix ++ rs <> [] /\ st = under fixed ++ infix ++ rs.
Proof.
  unfold cand_core. split.
  - destruct (match fixed with [] => Some st | _ => strip_prefix (fixed ++ [uscore]) st end) as [rest|] eqn:E;
      [|discriminate].
    apply strip_fixed_iff in E. destruct rest as [|r0 rr]; [discriminate|].
    set (rest := r0 :: rr) in *. assert (Hrest : rest <> []) by (unfold rest; discriminate). clearbody rest.
    destruct (find_byte dot rest) as [e|] eqn:Ef.
    + destruct (tail_ok (skipn (S e) rest)) eqn:Et; [|discriminate]. intros H. injection H as <-.
      apply find_byte_some in Ef. destruct Ef as [Hsplit Hnd].
      apply tail_ok_spec in Et. destruct Et as [d [Hd [Hlen Hdig]]].
      exists (dot :: restart_word ++ d). split; [right; exists d; auto|]. split; [exact Hnd|].
      rewrite <- Hd, <- Hsplit. split; [exact Hrest|exact E].
    + intros H. injection H as <-. apply find_byte_none in Ef.
      exists []. split; [left; reflexivity|]. split; [exact Ef|]. rewrite app_nil_r. split; [exact Hrest|exact E].
  - intros [rs [Hrs [Hnd [Hne Hst]]]]. apply strip_fixed_iff in Hst. rewrite Hst.
    remember (infix ++ rs) as rest eqn:Er. destruct rest as [|r0 rr]; [congruence|]. rewrite Er.
    destruct Hrs as [->|[d [-> [Hlen Hdig]]]].
    + rewrite app_nil_r. apply find_byte_none in Hnd. rewrite Hnd. reflexivity.
    + rewrite find_byte_app by exact Hnd.
      change (infix ++ dot :: restart_word ++ d) with (infix ++ [dot] ++ restart_word ++ d).
      rewrite app_assoc. replace (S (length infix)) with (length (infix ++ [dot])) by (rewrite app_length; cbn [length]; lia).
      rewrite skipn_length_app. rewrite <- app_assoc. rewrite firstn_length_app.
      assert (Ht : tail_ok (restart_word ++ d) = true) by (apply tail_ok_spec; exists d; auto).
      rewrite Ht. reflexivity.
Qed.

Lemma family_plain_alt sp fixed name infix :
  family_plain sp fixed name infix <->
  exists rs, restart_part rs /\ infix <> [] /\ no_dot infix /\
    name = (under fixed ++ infix ++ rs) ++ (match fsfx sp with Some s => dot :: s | None => [] end).
Proof.
  unfold family_plain. fold (under fixed).
  split; intros [rs [H1 [H2 [H3 H4]]]]; exists rs; repeat split; auto; rewrite H4; rewrite <- !app_assoc; reflexivity.
Qed.

(* 1. what the listing accepts has the documented shape (listing of plain files: listing suffix = family suffix).
   It needs the extracted infix to be non-empty: the listing also accepts names whose infix is empty
   when a restart part follows ("app_.restart-0001.log" yields Some []), which the documented pattern excludes. *)
Theorem candidate_is_family : forall sp fixed name infix,
  infix <> [] ->
  infix_candidate (fsfx sp) (fsfx sp) fixed name = Some infix -> family_plain sp fixed name infix.
Proof.
  intros sp fixed name infix Hne H. rewrite infix_candidate_plain in H. apply family_plain_alt.
  destruct (fsfx sp) as [s|].
  - destruct (strip_suffix (dot :: s) name) as [st|] eqn:Es; [|discriminate].
    apply strip_suffix_spec in Es. apply cand_core_spec in H. destruct H as [rs [Hrs [Hnd [_ Hst]]]].
    exists rs. repeat split; auto. rewrite <- Hst. exact Es.
  - apply cand_core_spec in H. destruct H as [rs [Hrs [Hnd [_ Hst]]]].
    exists rs. repeat split; auto. rewrite app_nil_r. exact Hst.
Qed.
Print Assumptions candidate_is_family.

(* without `infix <> []` statement 1 fails: the listing returns an empty infix for these names, and no name
   is a family member with an empty infix *)
Example candidate_is_family_infix_nonempty_needed :
  let sp := {| fbase := bs "app"%string; fdisc := None; fts := false; fsfx := Some (bs "log"%string) |} in
  infix_candidate (fsfx sp) (fsfx sp) (bs "app"%string) (bs "app_.restart-0001.log"%string) = Some []
  /\ infix_candidate (fsfx sp) (fsfx sp) [] (bs ".restart-0001.log"%string) = Some []
  /\ forall fixed name, ~ family_plain sp fixed name [].
Proof.
  split; [vm_compute; reflexivity|]. split; [vm_compute; reflexivity|].
  intros fixed name [rs [_ [Hne _]]]. apply Hne. reflexivity.
Qed.

(* 2. and every name of the documented shape is accepted, with that infix *)
Theorem family_is_candidate : forall sp fixed name infix,
  family_plain sp fixed name infix -> infix_candidate (fsfx sp) (fsfx sp) fixed name = Some infix.
Proof.
  intros sp fixed name infix H. apply family_plain_alt in H. destruct H as [rs [Hrs [Hne [Hnd Hname]]]].
  rewrite infix_candidate_plain.
  assert (Hcore : cand_core fixed (under fixed ++ infix ++ rs) = Some infix).
  { apply cand_core_spec. exists rs. repeat split; auto.
    intros Hnil. apply app_eq_nil in Hnil. destruct Hnil as [Hnil _]. exact (Hne Hnil). }
  destruct (fsfx sp) as [s|].
  - rewrite Hname, strip_suffix_app. exact Hcore.
  - rewrite app_nil_r in Hname. rewrite Hname. exact Hcore.
Qed.
Print Assumptions family_is_candidate.

(* 3. The listing never fails: filter_files is the plain filter by `listed`, and existing_rot appends four such
   filters of related_files. *)
Lemma filter_opt_filter {A} (p : A -> option bool) (q : A -> bool) l :
  (forall x, p x = Some (q x)) -> filter_opt p l = Some (filter q l).
Proof.
  intros H. induction l as [|x l IH]; cbn [filter_opt filter]; [reflexivity|]. rewrite H, IH. reflexivity.
Qed.

Definition listed (off : Z) (sp_sfx : option bytes) (fixed : bytes) (flt : infix_filter) (o_sfx : option bytes) (n : bytes)
  : bool :=
  match infix_candidate sp_sfx o_sfx fixed n with Some i => filter_infix off flt i | None => false end.

Lemma filter_files_filter off sp_sfx fixed files flt o_sfx :
  filter_files off sp_sfx fixed files flt o_sfx = Some (filter (listed off sp_sfx fixed flt o_sfx) files).
Proof.
  apply filter_opt_filter. intros n. unfold listed. destruct (infix_candidate sp_sfx o_sfx fixed n); reflexivity.
Qed.

Lemma existing_rot_filters off sp fixed f flt sel :
  let rel := related_files f (fsfx sp) fixed in
  let part (b : bool) flt' o_sfx := if b then filter (listed off (fsfx sp) fixed flt' o_sfx) rel else [] in
  existing_rot off sp fixed f flt sel
  = Some (((part (sel_plain sel) flt (fsfx sp) ++ part (sel_gz sel) flt (Some gz_sfx))
           ++ part (sel_rcur sel) (IFEq cur_infix) (fsfx sp))
          ++ match sel_custom sel with
             | Some c => part (negb (sel_rcur sel && beq c cur_infix)) (IFEq c) (fsfx sp)
             | None => []
             end).
Proof.
  intros rel part. unfold existing_rot, part, rel. cbv zeta.
  destruct (sel_plain sel), (sel_gz sel), (sel_rcur sel), (sel_custom sel) as [c|];
    try destruct (beq c cur_infix); rewrite ?filter_files_filter; reflexivity.
Qed.

Lemma existing_rot_total off sp fixed f flt sel : existing_rot off sp fixed f flt sel <> None.
Proof. rewrite existing_rot_filters. discriminate. Qed.

Lemma existing_rot_related off sp fixed f flt sel l n :
  existing_rot off sp fixed f flt sel = Some l -> In n l -> In n (related_files f (fsfx sp) fixed).
Proof.
  rewrite existing_rot_filters. intros H I. injection H as <-.
  assert (P : forall (b : bool) q, In n (if b then filter q (related_files f (fsfx sp) fixed) else []) ->
              In n (related_files f (fsfx sp) fixed)).
  { intros [|] q J; [apply filter_In in J; tauto | destruct J]. }
  repeat (apply in_app_or in I; destruct I as [I|I]); try exact (P _ _ I).
  destruct (sel_custom sel); [exact (P _ _ I) | destruct I].
Qed.

(* a name the listing does not accept does not influence it: noninterference of foreign files for filter_files *)
Theorem foreign_ignored : forall off sp fixed files flt sfx n,
  infix_candidate (fsfx sp) sfx fixed n = None ->
  forall l1 l2, files = l1 ++ n :: l2 ->
    filter_files off (fsfx sp) fixed files flt sfx = filter_files off (fsfx sp) fixed (l1 ++ l2) flt sfx.
Proof.
  intros off sp fixed files flt sfx n Hn l1 l2 ->. rewrite !filter_files_filter, !filter_app. cbn [filter].
  unfold listed at 2. rewrite Hn. reflexivity.
Qed.
Print Assumptions foreign_ignored.

(* 4. building a name and recognising it (the oracle's full_infix): round trip for every non-empty infix.
   Hypothesis added: the built name does not end with ".gz".  full_infix first removes a trailing ".gz"
   (the mark of a compressed file), so a family whose own suffix is "gz" (or ends with ".gz"), or a family without
   suffix whose infix ends with ".gz", is not recognised. *)
Lemma under_infix_not_fixed fixed infix : infix <> [] -> beq (under fixed ++ infix) fixed = false.
Proof.
  intros Hne. apply beq_neq. intros H. apply (f_equal (@length N)) in H. unfold under in H.
  destruct fixed as [|f0 fr].
  - destruct infix; [congruence|discriminate].
  - rewrite !app_length in H. cbn [length] in H. lia.
Qed.

Lemma full_infix_core fixed infix :
  infix <> [] ->
  (if beq (under fixed ++ infix) fixed then Some [] else
     match fixed with
     | [] => Some (under fixed ++ infix)
     | _ => strip_prefix (fixed ++ [uscore]) (under fixed ++ infix)
     end) = Some infix.
Proof.
  intros Hne. rewrite under_infix_not_fixed by exact Hne. unfold under. destruct fixed as [|f0 fr].
  - reflexivity.
  - apply strip_prefix_app.
Qed.

Theorem full_infix_as_name : forall sp fixed infix,
  infix <> [] ->
  strip_suffix (dot :: gz_sfx) (as_name sp fixed (Some infix)) = None ->
  full_infix sp fixed (as_name sp fixed (Some infix)) = Some infix.
Proof.
  intros sp fixed infix Hne Hgz. unfold full_infix.
  destruct (strip_suffix (dot :: gz_sfx) (as_name sp fixed (Some infix))) as [n|] eqn:En.
  - discriminate.
  - rewrite as_name_some by exact Hne. unfold with_suffix. destruct (fsfx sp) as [s|].
    + rewrite strip_suffix_app. apply full_infix_core; exact Hne.
    + apply full_infix_core; exact Hne.
Qed.
Print Assumptions full_infix_as_name.

(* the hypothesis is not only sufficient but necessary: a built name that ends with ".gz" is never recognised
   with its infix (the recognised infix is at least three bytes shorter) *)
Theorem full_infix_as_name_iff : forall sp fixed infix,
  infix <> [] ->
  (full_infix sp fixed (as_name sp fixed (Some infix)) = Some infix
   <-> strip_suffix (dot :: gz_sfx) (as_name sp fixed (Some infix)) = None).
Proof.
  intros sp fixed infix Hne. split; [|apply full_infix_as_name; exact Hne].
  intros H.
  destruct (strip_suffix (dot :: gz_sfx) (as_name sp fixed (Some infix))) as [n|] eqn:En; [exfalso|reflexivity].
  unfold full_infix in H. rewrite En in H. apply strip_suffix_spec in En.
  rewrite as_name_some in En by exact Hne.
  assert (Hlen : exists n2, (match fsfx sp with Some s => strip_suffix (dot :: s) n | None => Some n end) = Some n2 /\
                            length n2 + 3 = length (under fixed) + length infix).
  { destruct (match fsfx sp with Some s => strip_suffix (dot :: s) n | None => Some n end) as [n2|] eqn:E2; [|discriminate].
    exists n2. split; [reflexivity|]. unfold with_suffix in En. destruct (fsfx sp) as [s|].
    - apply strip_suffix_spec in E2. subst n. apply (f_equal (@length N)) in En.
      rewrite ?app_length in En. cbn [length gz_sfx] in En. rewrite ?app_length in En. cbn [length] in En. lia.
    - injection E2 as <-. apply (f_equal (@length N)) in En. rewrite ?app_length in En. cbn [length gz_sfx] in En. lia. }
  destruct Hlen as [n2 [E2 Hlen]]. rewrite E2 in H.
  destruct (beq n2 fixed).
  - injection H as H. congruence.
  - unfold under in Hlen. destruct fixed as [|f0 fr].
    + injection H as ->. cbn [length] in Hlen. lia.
    + apply strip_prefix_spec in H. subst n2. rewrite !app_length in Hlen. cbn [length] in Hlen. lia.
Qed.
Print Assumptions full_infix_as_name_iff.

(* the same condition on the parts of the name: with a suffix s, ".s" must not end with ".gz" (s is not "gz" and
   does not end with ".gz"); without a suffix, the infix must not end with ".gz" *)
Lemma gz_prefix_nosfx fixed infix : infix <> [] ->
  is_prefix (rev (dot :: gz_sfx)) (rev (under fixed ++ infix)) = is_prefix (rev (dot :: gz_sfx)) (rev infix).
Proof.
  intros Hne. rewrite rev_app_distr. cbn [rev gz_sfx app].
  assert (Hu : rev (under fixed) = [] \/ exists t, rev (under fixed) = uscore :: t).
  { unfold under. destruct fixed as [|f0 fr]; [left; reflexivity|right].
    rewrite rev_app_distr. cbn [rev app]. eexists. reflexivity. }
  destruct (rev infix) as [|c [|d [|e t]]] eqn:Er.
  - exfalso. apply Hne. apply (f_equal (@rev N)) in Er. rewrite rev_involutive in Er. exact Er.
  - destruct Hu as [->|[u ->]]; cbn [app is_prefix]; [reflexivity|].
    destruct (c =? 122)%N; cbn [andb]; reflexivity.
  - destruct Hu as [->|[u ->]]; cbn [app is_prefix]; [reflexivity|].
    destruct (c =? 122)%N; cbn [andb]; [|reflexivity]. destruct (d =? 103)%N; cbn [andb]; reflexivity.
  - cbn [app is_prefix]. reflexivity.
Qed.

Lemma as_name_gz_parts sp fixed infix : infix <> [] ->
  (strip_suffix (dot :: gz_sfx) (as_name sp fixed (Some infix)) = None <->
   match fsfx sp with
   | Some s => strip_suffix (dot :: gz_sfx) (dot :: s) = None
   | None => strip_suffix (dot :: gz_sfx) infix = None
   end).
Proof.
  intros Hne. rewrite as_name_some by exact Hne. unfold with_suffix. destruct (fsfx sp) as [s|].
  - rewrite !strip_suffix_none_iff, gz_prefix_sfx. reflexivity.
  - rewrite !strip_suffix_none_iff, gz_prefix_nosfx by exact Hne. reflexivity.
Qed.

Corollary full_infix_as_name_parts : forall sp fixed infix,
  infix <> [] ->
  (full_infix sp fixed (as_name sp fixed (Some infix)) = Some infix <->
   match fsfx sp with
   | Some s => strip_suffix (dot :: gz_sfx) (dot :: s) = None
   | None => strip_suffix (dot :: gz_sfx) infix = None
   end).
Proof.
  intros sp fixed infix Hne. rewrite full_infix_as_name_iff by exact Hne. apply as_name_gz_parts. exact Hne.
Qed.
Print Assumptions full_infix_as_name_parts.

(* without the hypothesis statement 4 fails: (a) the family's suffix is "gz"; (b) no suffix and the infix ends
   with ".gz"; (c) the suffix ends with ".gz" *)
Example full_infix_as_name_not_gz_needed :
  let sp s := {| fbase := bs "app"%string; fdisc := None; fts := false; fsfx := s |} in
  full_infix (sp (Some (bs "gz"%string))) (bs "app"%string) (as_name (sp (Some (bs "gz"%string))) (bs "app"%string) (Some (bs "r00001"%string))) = None
  /\ full_infix (sp None) (bs "app"%string) (as_name (sp None) (bs "app"%string) (Some (bs "r00001.gz"%string))) = Some (bs "r00001"%string)
  /\ full_infix (sp None) [] (as_name (sp None) [] (Some (bs ".gz"%string))) = Some []
  /\ full_infix (sp (Some (bs "log.gz"%string))) (bs "app"%string) (as_name (sp (Some (bs "log.gz"%string))) (bs "app"%string) (Some (bs "r00001"%string))) = None.
Proof. vm_compute. repeat split; reflexivity. Qed.

(* the converse of full_infix_as_name: what the oracles take for a member has the shape fixed [_ infix] [.suffix] [.gz] *)
Lemma full_infix_shape sp fixed name infix : full_infix sp fixed name = Some infix ->
  exists gz body,
    (gz = [] \/ gz = dot :: gz_sfx)
    /\ name = body ++ (match fsfx sp with Some s => dot :: s | None => [] end) ++ gz
    /\ ((body = fixed /\ infix = []) \/ (fixed = [] /\ body = infix) \/ body = fixed ++ [uscore] ++ infix).
Proof.
  intros H. unfold full_infix in H.
  set (n1 := match strip_suffix (dot :: gz_sfx) name with Some n => n | None => name end) in H.
  assert (G : exists gz, (gz = [] \/ gz = dot :: gz_sfx) /\ name = n1 ++ gz).
  { unfold n1. destruct (strip_suffix (dot :: gz_sfx) name) as [n|] eqn:E.
    - apply strip_suffix_spec in E. exists (dot :: gz_sfx). split; [right; reflexivity | exact E].
    - exists []. split; [left; reflexivity | rewrite app_nil_r; reflexivity]. }
  destruct G as [gz [Hgz Hn]]. clearbody n1.
  assert (S : exists n2, n1 = n2 ++ (match fsfx sp with Some s => dot :: s | None => [] end)
                         /\ (if beq n2 fixed then Some [] else match fixed with [] => Some n2 | _ => strip_prefix (fixed ++ [uscore]) n2 end) = Some infix).
  { destruct (fsfx sp) as [s|].
    - destruct (strip_suffix (dot :: s) n1) as [n2|] eqn:E; [|discriminate]. apply strip_suffix_spec in E. exists n2. split; assumption.
    - exists n1. split; [rewrite app_nil_r; reflexivity | exact H]. }
  destruct S as [n2 [Hs Hb]]. exists gz, n2. split; [exact Hgz|]. split; [rewrite Hn, Hs, <- app_assoc; reflexivity|].
  destruct (beq_spec n2 fixed) as [->|N].
  - injection Hb as <-. left. split; reflexivity.
  - destruct fixed as [|f0 fr].
    + injection Hb as <-. right. left. split; reflexivity.
    + right. right. apply strip_prefix_spec in Hb. rewrite Hb, <- app_assoc. reflexivity.
Qed.
