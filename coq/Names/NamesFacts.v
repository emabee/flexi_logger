(* Byte strings (prefixes, suffixes, the .gz suffix), decimal digit strings and their padding; then file names: number
   infixes are injective, names are injective in a non-empty infix. *)
Require Import FL.Base.Bytes FL.Base.BytesFacts FL.Base.PathName FL.Fs.Fs FL.Names.FileSpec.
From Coq Require Import ZifyN ZifyNat ZifyBool.
Open Scope N_scope.

(* ---------- the byte-string functions ---------- *)

Lemma is_prefix_app p r : is_prefix p (p ++ r) = true.
Proof.
  induction p as [|x p IH]; cbn [is_prefix app]; [reflexivity|].
  rewrite N.eqb_refl, IH. reflexivity.
Qed.

Lemma is_prefix_skipn p s : is_prefix p s = true -> s = p ++ skipn (length p) s.
Proof. intros H. apply strip_prefix_spec. unfold strip_prefix. rewrite H. reflexivity. Qed.

Lemma skipn_length_app {A} (p r : list A) : skipn (length p) (p ++ r) = r.
Proof. induction p as [|x p IH]; cbn [length skipn app]; auto. Qed.

Lemma firstn_length_app {A} (p r : list A) : firstn (length p) (p ++ r) = p.
Proof. induction p as [|x p IH]; cbn [length firstn app]; [reflexivity|]. rewrite IH. reflexivity. Qed.

Lemma strip_prefix_app p r : strip_prefix p (p ++ r) = Some r.
Proof. unfold strip_prefix. rewrite is_prefix_app, skipn_length_app. reflexivity. Qed.

Lemma strip_suffix_app x r : strip_suffix x (r ++ x) = Some r.
Proof. unfold strip_suffix. rewrite rev_app_distr, strip_prefix_app, rev_involutive. reflexivity. Qed.

Lemma strip_prefix_iff p s r : strip_prefix p s = Some r <-> s = p ++ r.
Proof. split; [apply strip_prefix_spec|]. intros ->. apply strip_prefix_app. Qed.

Lemma strip_suffix_iff x s r : strip_suffix x s = Some r <-> s = r ++ x.
Proof. split; [apply strip_suffix_spec|]. intros ->. apply strip_suffix_app. Qed.

Lemma find_byte_some c s : forall e, find_byte c s = Some e ->
  s = firstn e s ++ c :: skipn (S e) s /\ ~ In c (firstn e s).
Proof.
  induction s as [|x s IH]; intros e H; cbn [find_byte] in H; [discriminate|].
  destruct (N.eqb_spec x c) as [Hx|Hx].
  - injection H as <-. subst x. cbn [firstn skipn app]. split; [reflexivity|]. intros [].
  - destruct (find_byte c s) as [i|] eqn:Ei; [|discriminate]. injection H as <-.
    destruct (IH i eq_refl) as [H1 H2]. cbn [firstn skipn app]. split.
    + f_equal. exact H1.
    + cbn [In]. intros [Hc|Hc]; [exact (Hx Hc)|exact (H2 Hc)].
Qed.

Lemma find_byte_none c s : find_byte c s = None <-> ~ In c s.
Proof.
  induction s as [|x s IH]; cbn [find_byte In].
  - split; [intros _ []|reflexivity].
  - destruct (N.eqb_spec x c) as [Hx|Hx].
    + split; [discriminate|]. intros H. exfalso. apply H. left. exact Hx.
    + destruct (find_byte c s) as [i|].
      * split; [discriminate|]. intros H. exfalso.
        assert (Hn : ~ In c s) by (intros Hc; apply H; right; exact Hc).
        apply IH in Hn. discriminate.
      * split; [|reflexivity]. intros _ [Hc|Hc]; [exact (Hx Hc)|]. destruct IH as [IH1 _]. exact (IH1 eq_refl Hc).
Qed.

Lemma find_byte_app c a b : ~ In c a -> find_byte c (a ++ c :: b) = Some (length a).
Proof.
  induction a as [|x a IH]; intros Hn; cbn [find_byte app length].
  - rewrite N.eqb_refl. reflexivity.
  - destruct (N.eqb_spec x c) as [Hx|Hx].
    + exfalso. apply Hn. left. exact Hx.
    + rewrite IH; [reflexivity|]. intros Hc. apply Hn. right. exact Hc.
Qed.

Lemma strip_suffix_none_iff x s : strip_suffix x s = None <-> is_prefix (rev x) (rev s) = false.
Proof.
  unfold strip_suffix, strip_prefix. destruct (is_prefix (rev x) (rev s)); split; intros H; (discriminate || reflexivity).
Qed.

(* whether a name with a suffix ends with ".gz" depends on "." ++ suffix only *)
Lemma gz_prefix_sfx a s :
  is_prefix (rev (dot :: gz_sfx)) (rev (a ++ dot :: s)) = is_prefix (rev (dot :: gz_sfx)) (rev (dot :: s)).
Proof.
  rewrite rev_app_distr. cbn [rev gz_sfx app]. rewrite <- !app_assoc.
  destruct (rev s) as [|c [|d [|e t]]]; cbn [app is_prefix].
  - reflexivity.
  - destruct (c =? 122); cbn [andb]; reflexivity.
  - destruct (c =? 122); cbn [andb]; [|reflexivity]. destruct (d =? 103); cbn [andb]; reflexivity.
  - reflexivity.
Qed.

(* ---------- decimal numbers ---------- *)

Lemma dec_value_acc_spec s a : dec_value_acc s a = a * 10 ^ N.of_nat (length s) + dec_value_acc s 0.
Proof.
  revert a; induction s as [|c s IH]; intros a.
  - cbn. lia.
  - cbn [dec_value_acc length]. rewrite IH, (IH (0 * 10 + (c - 48))).
    rewrite Nat2N.inj_succ, N.pow_succ_r'. lia.
Qed.

Lemma dec_value_cons c s : dec_value (c :: s) = (c - 48) * 10 ^ N.of_nat (length s) + dec_value s.
Proof. unfold dec_value. cbn [dec_value_acc]. rewrite dec_value_acc_spec. lia. Qed.

Lemma dec_digits_value fuel : forall n acc, n < 10 ^ N.of_nat fuel ->
  dec_value (dec_digits fuel n acc) = n * 10 ^ N.of_nat (length acc) + dec_value acc.
Proof.
  induction fuel as [|f IH]; intros n acc Hn.
  - change (10 ^ N.of_nat 0) with 1 in Hn. assert (n = 0) by lia. subst. cbn [dec_digits]. lia.
  - cbn [dec_digits]. destruct (N.ltb_spec n 10) as [Hlt|Hge].
    + rewrite dec_value_cons. rewrite N.mod_small by assumption. lia.
    + rewrite IH.
      * rewrite dec_value_cons. cbn [length]. rewrite Nat2N.inj_succ, N.pow_succ_r'.
        pose proof (N.div_mod n 10 ltac:(lia)) as D. pose proof (N.mod_lt n 10 ltac:(lia)) as M.
        replace (48 + n mod 10 - 48) with (n mod 10) by lia. nia.
      * rewrite Nat2N.inj_succ, N.pow_succ_r' in Hn. apply N.div_lt_upper_bound; lia.
Qed.

Lemma pow2_le_pow10 k : 2 ^ k <= 10 ^ k.
Proof. apply N.pow_le_mono_l. lia. Qed.

Lemma dec_value_dec n : dec_value (dec n) = n.
Proof.
  unfold dec. rewrite dec_digits_value.
  - cbn. lia.
  - rewrite Nat2N.inj_succ, N2Nat.id.
    destruct n as [|p]; [cbn; lia|].
    pose proof (N.log2_spec (N.pos p) ltac:(lia)) as [_ H]. pose proof (pow2_le_pow10 (N.succ (N.log2 (N.pos p)))). lia.
Qed.

Lemma dec_value_zeros k s : dec_value (repeat 48 k ++ s) = dec_value s.
Proof. induction k as [|k IH]; cbn [repeat app]; [reflexivity|]. rewrite dec_value_cons, IH. lia. Qed.

Lemma number_infix_inj i j : number_infix i = number_infix j -> i = j.
Proof.
  unfold number_infix, pad_left. intros H. injection H as H.
  apply (f_equal dec_value) in H. rewrite !dec_value_zeros, !dec_value_dec in H. exact H.
Qed.

Lemma dec_digits_nonempty fuel n acc : dec_digits (S fuel) n acc <> [].
Proof.
  revert n acc. induction fuel as [|f IH]; intros n acc; cbn [dec_digits].
  - destruct (n <? 10); discriminate.
  - destruct (n <? 10); [discriminate|]. apply IH.
Qed.

Lemma is_digit_iff c : is_digit c = true <-> 48 <= c <= 57.
Proof. unfold is_digit. lia. Qed.

Lemma all_digits_app a b : all_digits (a ++ b) = all_digits a && all_digits b.
Proof. induction a as [|c a IH]; cbn [all_digits app]; [reflexivity|]. rewrite IH, andb_assoc. reflexivity. Qed.

Lemma forallb_is_digit s : forallb is_digit s = all_digits s.
Proof. induction s as [|c s IH]; cbn [forallb all_digits]; [reflexivity|]. rewrite IH. reflexivity. Qed.

Lemma all_digits_repeat0 n : all_digits (repeat 48 n) = true.
Proof. induction n as [|n IH]; cbn [repeat all_digits]; [reflexivity|]. rewrite IH. reflexivity. Qed.

Lemma dec_digits_all fuel : forall n acc, all_digits acc = true -> all_digits (dec_digits fuel n acc) = true.
Proof.
  induction fuel as [|f IH]; intros n acc Ha; cbn [dec_digits]; [exact Ha|].
  assert (X : all_digits ((48 + n mod 10) :: acc) = true).
  { cbn [all_digits]. rewrite Ha, andb_true_r. apply is_digit_iff. pose proof (N.mod_lt n 10 ltac:(lia)). lia. }
  destruct (n <? 10); [exact X | apply IH, X].
Qed.

Lemma dec_all_digits n : all_digits (dec n) = true.
Proof. unfold dec. apply dec_digits_all. reflexivity. Qed.

Lemma dec_nonempty n : dec n <> [].
Proof. unfold dec. apply dec_digits_nonempty. Qed.

(* a number padded with zeros *)
Lemma pad_dec_all w k : all_digits (pad_left w 48 (dec k)) = true.
Proof. unfold pad_left. rewrite all_digits_app, all_digits_repeat0, dec_all_digits. reflexivity. Qed.

Lemma pad_dec_nonempty w k : pad_left w 48 (dec k) <> [].
Proof. unfold pad_left. intros E. apply app_eq_nil in E. destruct E as [_ E]. exact (dec_nonempty k E). Qed.

(* behind the r of a number infix come digits, behind that of the infix of the current file a letter *)
Lemma number_infix_not_cur i : number_infix i <> cur_infix.
Proof.
  unfold number_infix, cur_infix. intros H. injection H as H.
  pose proof (pad_dec_all 5 i) as D. rewrite H in D. discriminate D.
Qed.

Lemma under_app_inv fixed x y : under fixed ++ x = under fixed ++ y -> x = y.
Proof. apply app_inv_head. Qed.

Lemma with_suffix_inj sp x y : with_suffix sp x = with_suffix sp y -> x = y.
Proof. unfold with_suffix. destruct (fsfx sp) as [s|]; [apply app_inv_tail | auto]. Qed.

Lemma as_name_inj sp fixed i j : i <> [] -> j <> [] ->
  as_name sp fixed (Some i) = as_name sp fixed (Some j) -> i = j.
Proof.
  intros Hi Hj. unfold as_name. destruct i as [|a i]; [congruence|]. destruct j as [|b j]; [congruence|].
  intros H. apply with_suffix_inj, under_app_inv in H. exact H.
Qed.

Lemma as_name_some sp fixed infix : infix <> [] ->
  as_name sp fixed (Some infix) = with_suffix sp (under fixed ++ infix).
Proof. intros Hne. unfold as_name. destruct infix; [congruence|reflexivity]. Qed.

Lemma number_infix_nonempty i : number_infix i <> [].
Proof. discriminate. Qed.
Lemma cur_infix_nonempty : cur_infix <> [].
Proof. discriminate. Qed.
