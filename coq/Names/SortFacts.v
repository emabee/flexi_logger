(* The listing order of read_dir_related_files (sort_key / key_le / sort_by_key in FileSpec.v):
   1. key_le is a total order on names (reflexive, total, transitive, antisymmetric);
   2. sort_by_key yields a sorted permutation;
   3. THE NAMING THEOREM: the order agrees with the order in which the logger creates the files of one infix -
      the file without restart counter first, then the restart counters numerically, whatever the suffix is,
      however many digits the counter has, whether or not the files are compressed, and whatever the fixed name
      part and the infix contain (the sort key reads the counter behind the LAST ".restart-" of the stem);
   4. hence in the listing (newest first) a higher restart counter comes before a lower one;
   5. THE NUMBER INFIX: names  <head>_r<digits>  with the same head are ordered by the NUMBER, however many digits it
      has (r99999 before r100000), compressed or not; the number is the one behind the LAST "_r" of the main part - or,
      in a main part without any "_r" (no basename, no discriminant), behind the leading "r". *)
Require Import FL.Base.Bytes FL.Base.BytesFacts FL.Base.PathName FL.Fs.Fs FL.Names.FileSpec FL.Names.NamesFacts.
From Coq Require Import Permutation Sorted.
Open Scope N_scope.

(* ------------------------------------------------------------------------------------------------------ *)
(* 0. boolean orders                                                                                        *)

Record order {A} (eqb le : A -> A -> bool) : Prop := {
  o_eq      : forall a b, eqb a b = true <-> a = b;
  o_refl    : forall a, le a a = true;
  o_total   : forall a b, le a b = true \/ le b a = true;
  o_trans   : forall a b c, le a b = true -> le b c = true -> le a c = true;
  o_antisym : forall a b, le a b = true -> le b a = true -> a = b }.

(* lexicographic product: first component decides unless equal *)
Definition lexc {A B} (eqa lea : A -> A -> bool) (leb : B -> B -> bool) (p q : A * B) : bool :=
  if eqa (fst p) (fst q) then leb (snd p) (snd q) else lea (fst p) (fst q).
Definition eqprod {A B} (eqa : A -> A -> bool) (eqb : B -> B -> bool) (p q : A * B) : bool :=
  eqa (fst p) (fst q) && eqb (snd p) (snd q).

Lemma o_eq_refl {A} (eqb le : A -> A -> bool) : order eqb le -> forall a, eqb a a = true.
Proof. intros O a. apply (o_eq _ _ O). reflexivity. Qed.

Lemma lexc_order {A B} (eqa lea : A -> A -> bool) (eqb leb : B -> B -> bool) :
  order eqa lea -> order eqb leb -> order (eqprod eqa eqb) (lexc eqa lea leb).
Proof.
  intros OA OB.
  assert (RA := o_eq_refl _ _ OA).
  assert (EA : forall a b, eqa a b = true -> a = b) by (intros a b; apply (o_eq _ _ OA)).
  split.
  - intros [a1 b1] [a2 b2]. unfold eqprod. cbn [fst snd]. rewrite andb_true_iff, (o_eq _ _ OA), (o_eq _ _ OB).
    split; [intros [-> ->]; reflexivity | intros H; injection H; auto].
  - intros [a b]. unfold lexc. cbn [fst snd]. rewrite RA. apply (o_refl _ _ OB).
  - intros [a1 b1] [a2 b2]. unfold lexc. cbn [fst snd].
    destruct (eqa a1 a2) eqn:E12.
    + apply EA in E12. subst a2. rewrite RA. apply (o_total _ _ OB).
    + destruct (eqa a2 a1) eqn:E21; [apply EA in E21; subst a2; rewrite RA in E12; discriminate|].
      apply (o_total _ _ OA).
  - intros [a1 b1] [a2 b2] [a3 b3]. unfold lexc. cbn [fst snd].
    destruct (eqa a1 a2) eqn:E12; [apply EA in E12; subst a1|];
    (destruct (eqa a2 a3) eqn:E23; [apply EA in E23; subst a3|]);
    try rewrite RA; try rewrite E12; try rewrite E23; try (apply (o_trans _ _ OB)); auto.
    destruct (eqa a1 a3) eqn:E13.
    + apply EA in E13. subst a3. intros H1 H2. pose proof (o_antisym _ _ OA _ _ H1 H2) as ->.
      rewrite RA in E12. discriminate.
    + apply (o_trans _ _ OA).
  - intros [a1 b1] [a2 b2]. unfold lexc. cbn [fst snd].
    destruct (eqa a1 a2) eqn:E12.
    + apply EA in E12. subst a2. rewrite RA. intros H1 H2. f_equal. apply (o_antisym _ _ OB); assumption.
    + destruct (eqa a2 a1) eqn:E21; [apply EA in E21; subst a2; rewrite RA in E12; discriminate|].
      intros H1 H2. pose proof (o_antisym _ _ OA _ _ H1 H2) as ->. rewrite RA in E12. discriminate.
Qed.

(* ------------------------------------------------------------------------------------------------------ *)
(* 1a. lex_le is a total order on byte strings                                                             *)

(* the first bytes decide unless they are equal *)
Lemma lex_step x y (l : bool) :
  (x <? y) || ((x =? y) && l) = match x ?= y with Lt => true | Eq => l | Gt => false end.
Proof.
  destruct (N.compare_spec x y) as [->|L|L].
  - rewrite N.ltb_irrefl, N.eqb_refl. reflexivity.
  - apply N.ltb_lt in L. rewrite L. reflexivity.
  - rewrite (proj2 (N.ltb_ge x y)), (proj2 (N.eqb_neq x y)) by lia. reflexivity.
Qed.

Lemma lex_lt_irrefl a : lex_lt a a = false.
Proof.
  induction a as [|x a IH]; [reflexivity|]. cbn [lex_lt]. rewrite lex_step, N.compare_refl. exact IH.
Qed.

Lemma lex_lt_asym a : forall b, lex_lt a b = true -> lex_lt b a = false.
Proof.
  induction a as [|x a IH]; intros [|y b]; cbn [lex_lt]; try (intros; congruence || reflexivity).
  rewrite !lex_step, (N.compare_antisym x y). destruct (x ?= y); cbn [CompOpp]; [apply IH | reflexivity | discriminate].
Qed.

Lemma lex_lt_connex a : forall b, lex_lt a b = false -> lex_lt b a = false -> a = b.
Proof.
  induction a as [|x a IH]; intros [|y b]; cbn [lex_lt]; try (intros; congruence || reflexivity).
  rewrite !lex_step, (N.compare_antisym x y). destruct (N.compare_spec x y) as [->|L|L]; cbn [CompOpp]; try discriminate.
  intros H1 H2. f_equal. exact (IH b H1 H2).
Qed.

(* transitivity, of lex_lt and of its negation: the comparison of the heads of a and c follows from the other two *)
Lemma lex_lt_trans a : forall b c, lex_lt a b = true -> lex_lt b c = true -> lex_lt a c = true.
Proof.
  induction a as [|x a IH]; intros [|y b] [|z c]; cbn [lex_lt]; try (intros; congruence || reflexivity).
  rewrite !lex_step. specialize (IH b c).
  destruct (N.compare_spec x y), (N.compare_spec y z); try discriminate; intros H1 H2;
    destruct (N.compare_spec x z); subst; auto; lia.
Qed.
Lemma lex_lt_negtrans a : forall b c, lex_lt b a = false -> lex_lt c b = false -> lex_lt c a = false.
Proof.
  induction a as [|x a IH]; intros [|y b] [|z c]; cbn [lex_lt]; try (intros; congruence || reflexivity).
  rewrite !lex_step. specialize (IH b c).
  destruct (N.compare_spec y x), (N.compare_spec z y); try discriminate; intros H1 H2;
    destruct (N.compare_spec z x); subst; auto; lia.
Qed.

Lemma lex_le_refl a : lex_le a a = true.
Proof. unfold lex_le. rewrite lex_lt_irrefl. reflexivity. Qed.
Lemma lex_le_total a b : lex_le a b = true \/ lex_le b a = true.
Proof.
  unfold lex_le. destruct (lex_lt b a) eqn:E; [right | left; reflexivity]. rewrite (lex_lt_asym _ _ E). reflexivity.
Qed.
Lemma lex_le_trans a b c : lex_le a b = true -> lex_le b c = true -> lex_le a c = true.
Proof.
  unfold lex_le. rewrite !negb_true_iff. intros H1 H2. exact (lex_lt_negtrans a b c H1 H2).
Qed.
Lemma lex_le_antisym a b : lex_le a b = true -> lex_le b a = true -> a = b.
Proof. unfold lex_le. rewrite !negb_true_iff. intros H1 H2. apply lex_lt_connex; assumption. Qed.

Lemma beq_true_iff a b : beq a b = true <-> a = b.
Proof. split; [apply beq_eq | intros ->; apply beq_refl]. Qed.

Lemma lex_le_order : order beq lex_le.
Proof.
  split; [apply beq_true_iff | apply lex_le_refl | apply lex_le_total | apply lex_le_trans | apply lex_le_antisym].
Qed.

(* ------------------------------------------------------------------------------------------------------ *)
(* 1b. rkey_le is a total order on restart keys                                                            *)

Lemma rkey_eq_iff a b : rkey_eq a b = true <-> a = b.
Proof.
  destruct a as [[la da]|], b as [[lb db]|]; cbn [rkey_eq]; try (split; congruence).
  rewrite andb_true_iff, Nat.eqb_eq, beq_true_iff. split; [intros [-> ->]; reflexivity | intros H; injection H; auto].
Qed.
Lemma rkey_le_refl a : rkey_le a a = true.
Proof. destruct a as [[la da]|]; cbn [rkey_le]; [|reflexivity]. rewrite Nat.eqb_refl. apply lex_le_refl. Qed.
Lemma rkey_le_total a b : rkey_le a b = true \/ rkey_le b a = true.
Proof.
  destruct a as [[la da]|], b as [[lb db]|]; cbn [rkey_le]; auto.
  destruct (Nat.eqb_spec la lb) as [->|Hne].
  - rewrite Nat.eqb_refl. apply lex_le_total.
  - destruct (Nat.eqb_spec lb la) as [->|_]; [congruence|].
    destruct (Nat.ltb_spec la lb), (Nat.ltb_spec lb la); auto. lia.
Qed.
Lemma rkey_le_trans a b c : rkey_le a b = true -> rkey_le b c = true -> rkey_le a c = true.
Proof.
  destruct a as [[la da]|], b as [[lb db]|], c as [[lc dc]|]; cbn [rkey_le]; try (intros; congruence || reflexivity).
  destruct (Nat.eqb_spec la lb) as [->|H1], (Nat.eqb_spec lb lc) as [->|H2].
  - apply lex_le_trans.
  - auto.
  - destruct (Nat.eqb_spec la lc); [congruence|]. auto.
  - intros L1 L2. apply Nat.ltb_lt in L1, L2. destruct (Nat.eqb_spec la lc); [lia|]. apply Nat.ltb_lt. lia.
Qed.
Lemma rkey_le_antisym a b : rkey_le a b = true -> rkey_le b a = true -> a = b.
Proof.
  destruct a as [[la da]|], b as [[lb db]|]; cbn [rkey_le]; try (intros; congruence || reflexivity).
  destruct (Nat.eqb_spec la lb) as [->|H1].
  - rewrite Nat.eqb_refl. intros L1 L2. rewrite (lex_le_antisym _ _ L1 L2). reflexivity.
  - destruct (Nat.eqb_spec lb la); [congruence|]. intros L1 L2. apply Nat.ltb_lt in L1, L2. lia.
Qed.
Lemma rkey_le_order : order rkey_eq rkey_le.
Proof.
  split; [apply rkey_eq_iff | apply rkey_le_refl | apply rkey_le_total | apply rkey_le_trans | apply rkey_le_antisym].
Qed.

(* ------------------------------------------------------------------------------------------------------ *)
(* 1c. key_le is a total order on names                                                                    *)

(* key_le compares the tuples (main part, number key, restart key, name) lexicographically *)
Definition key3 (sfx : option bytes) (x : bytes) : bytes * (option (nat * bytes) * (option (nat * bytes) * bytes)) :=
  (fst (fst (sort_key sfx x)), (snd (fst (sort_key sfx x)), (snd (sort_key sfx x), x))).
Definition key3_le := lexc beq lex_le (lexc rkey_eq rkey_le (lexc rkey_eq rkey_le lex_le)).

Lemma key_le_key3 sfx x y : key_le sfx x y = key3_le (key3 sfx x) (key3 sfx y).
Proof.
  unfold key_le, key3_le, key3, lexc. destruct (sort_key sfx x) as [[mx nx] rx], (sort_key sfx y) as [[my ny] ry]. reflexivity.
Qed.

Lemma key3_order : order (eqprod beq (eqprod rkey_eq (eqprod rkey_eq beq))) key3_le.
Proof.
  apply lexc_order; [apply lex_le_order|]. apply lexc_order; [apply rkey_le_order|].
  apply lexc_order; [apply rkey_le_order | apply lex_le_order].
Qed.

Theorem key_le_refl sfx x : key_le sfx x x = true.
Proof. rewrite key_le_key3. apply (o_refl _ _ key3_order). Qed.

Theorem key_le_total sfx x y : key_le sfx x y = true \/ key_le sfx y x = true.
Proof. rewrite !key_le_key3. apply (o_total _ _ key3_order). Qed.

Theorem key_le_trans sfx x y z : key_le sfx x y = true -> key_le sfx y z = true -> key_le sfx x z = true.
Proof. rewrite !key_le_key3. apply (o_trans _ _ key3_order). Qed.

Theorem key_le_antisym sfx x y : key_le sfx x y = true -> key_le sfx y x = true -> x = y.
Proof.
  rewrite !key_le_key3. intros H1 H2. pose proof (o_antisym _ _ key3_order _ _ H1 H2) as E.
  unfold key3 in E. injection E as _ _ _ E. exact E.
Qed.

(* ------------------------------------------------------------------------------------------------------ *)
(* 2. sort_by_key: a sorted permutation                                                                    *)

Definition key_rel (sfx : option bytes) (x y : bytes) : Prop := key_le sfx x y = true.

Lemma insert_by_perm le x l : Permutation (insert_by le x l) (x :: l).
Proof.
  induction l as [|y l IH]; cbn [insert_by]; [apply Permutation_refl|].
  destruct (le x y); [apply Permutation_refl|].
  eapply Permutation_trans; [apply perm_skip, IH | apply perm_swap].
Qed.

Theorem sort_by_key_perm sfx l : Permutation (sort_by_key sfx l) l.
Proof.
  induction l as [|x l IH]; cbn [sort_by_key fold_right]; [apply Permutation_refl|]. fold (sort_by_key sfx l).
  eapply Permutation_trans; [apply insert_by_perm | apply perm_skip, IH].
Qed.

Lemma In_sort_by_key sfx l y : In y (sort_by_key sfx l) <-> In y l.
Proof.
  split; apply Permutation_in; [apply sort_by_key_perm | apply Permutation_sym, sort_by_key_perm].
Qed.

Lemma In_related_files f sfx fixed n :
  In n (related_files f sfx fixed) <-> In n (dir_names f) /\ is_reg_file f n = true /\ is_prefix fixed n = true.
Proof. unfold related_files. rewrite <- in_rev, In_sort_by_key, filter_In, andb_true_iff. tauto. Qed.

Lemma insert_by_sorted sfx x l :
  StronglySorted (key_rel sfx) l -> StronglySorted (key_rel sfx) (insert_by (key_le sfx) x l).
Proof.
  induction 1 as [|y l Hs IH Hy]; cbn [insert_by].
  - constructor; constructor.
  - destruct (key_le sfx x y) eqn:E.
    + constructor; [constructor; assumption|]. constructor; [exact E|].
      rewrite Forall_forall in *. intros z Hz. eapply key_le_trans; [exact E | apply Hy, Hz].
    + constructor; [exact IH|].
      assert (Hyx : key_le sfx y x = true) by (destruct (key_le_total sfx x y); congruence).
      rewrite Forall_forall in *. intros z Hz.
      apply (Permutation_in _ (insert_by_perm _ _ _)) in Hz. destruct Hz as [<-|Hz]; [exact Hyx | apply Hy, Hz].
Qed.

Theorem sort_by_key_strongly_sorted sfx l : StronglySorted (key_rel sfx) (sort_by_key sfx l).
Proof.
  induction l as [|x l IH]; cbn [sort_by_key fold_right]; [constructor|]. fold (sort_by_key sfx l).
  apply insert_by_sorted, IH.
Qed.

Theorem sort_by_key_sorted sfx l : Sorted (fun x y => key_le sfx x y = true) (sort_by_key sfx l).
Proof. apply StronglySorted_Sorted, sort_by_key_strongly_sorted. Qed.

(* a strictly smaller name stands before a larger one in the sorted list, hence after it in the listing *)
Lemma strongly_sorted_split sfx s x y :
  StronglySorted (key_rel sfx) s -> In x s -> In y s -> key_le sfx y x = false ->
  exists l1 l2 l3, s = l1 ++ x :: l2 ++ y :: l3.
Proof.
  intros Hs Hx Hy Hlt. apply in_split in Hx. destruct Hx as [l1 [r ->]].
  apply in_app_or in Hy. destruct Hy as [Hy|[Hy|Hy]].
  - exfalso. apply in_split in Hy. destruct Hy as [a [b ->]]. rewrite <- app_assoc in Hs. cbn [app] in Hs.
    clear - Hs Hlt. induction a as [|c a IH]; cbn [app] in Hs.
    + inversion Hs as [|? ? _ Hf]; subst. rewrite Forall_forall in Hf.
      assert (key_rel sfx y x) by (apply Hf; apply in_or_app; right; left; reflexivity). unfold key_rel in *. congruence.
    + inversion Hs; subst. auto.
  - subst y. rewrite key_le_refl in Hlt. discriminate.
  - apply in_split in Hy. destruct Hy as [a [b ->]]. exists l1, a, b. reflexivity.
Qed.

Theorem listing_order sfx l x y :
  In x l -> In y l -> key_le sfx y x = false ->
  exists l1 l2 l3, rev (sort_by_key sfx l) = l1 ++ y :: l2 ++ x :: l3.
Proof.
  intros Hx Hy Hlt.
  destruct (strongly_sorted_split sfx (sort_by_key sfx l) x y) as [l1 [l2 [l3 E]]];
    [apply sort_by_key_strongly_sorted | apply In_sort_by_key, Hx | apply In_sort_by_key, Hy | exact Hlt |].
  exists (rev l3), (rev l2), (rev l1). rewrite E.
  rewrite rev_app_distr. cbn [rev]. rewrite rev_app_distr. cbn [rev]. rewrite <- !app_assoc. reflexivity.
Qed.

(* ------------------------------------------------------------------------------------------------------ *)
(* 3a. decimal strings: value, length and byte order                                                        *)

Lemma all_digits_bound s : all_digits s = true -> dec_value s < 10 ^ N.of_nat (length s).
Proof.
  induction s as [|c s IH]; [intros _; cbn; lia|]. cbn [all_digits]. rewrite andb_true_iff, is_digit_iff. intros [Hc Hs].
  specialize (IH Hs). rewrite dec_value_cons. cbn [length]. rewrite Nat2N.inj_succ, N.pow_succ_r'. nia.
Qed.

(* numbers x P + v with v below P compare like the pairs (x, v) *)
Lemma lt_lex_digit P x y va vb : va < P -> vb < P ->
  (x * P + va < y * P + vb <-> x < y \/ (x = y /\ va < vb)).
Proof.
  intros Ha Hb. split.
  - intros H. destruct (N.lt_trichotomy x y) as [L|[->|L]]; [left; exact L | right; split; [reflexivity | lia] | exfalso; nia].
  - intros [L|[-> L]]; [nia | lia].
Qed.

(* on digit strings of equal length the byte order is the numeric order *)
Lemma lex_lt_value a : forall b, all_digits a = true -> all_digits b = true -> length a = length b ->
  lex_lt a b = (dec_value a <? dec_value b).
Proof.
  induction a as [|x a IH]; intros [|y b]; try discriminate; [reflexivity|].
  cbn [all_digits length]. rewrite !andb_true_iff, !is_digit_iff. intros [Hx Ha] [Hy Hb] Hl. injection Hl as Hl.
  cbn [lex_lt]. rewrite (IH b Ha Hb Hl), !dec_value_cons, Hl.
  pose proof (all_digits_bound a Ha) as Ba. pose proof (all_digits_bound b Hb) as Bb. rewrite Hl in Ba.
  apply Bool.eq_true_iff_eq. rewrite orb_true_iff, andb_true_iff, !N.ltb_lt, N.eqb_eq, (lt_lex_digit _ _ _ _ _ Ba Bb). lia.
Qed.

(* a shorter digit string has a smaller value than a longer one without leading zero *)
Lemma shorter_smaller a b : all_digits a = true -> all_digits b = true -> (forall r, b <> 48 :: r) ->
  (length a < length b)%nat -> dec_value a < dec_value b.
Proof.
  intros Ha Hb Hz Hl. destruct b as [|c b]; [cbn [length] in Hl; lia|].
  cbn [all_digits] in Hb. rewrite andb_true_iff, is_digit_iff in Hb. destruct Hb as [Hc Hb].
  assert (c <> 48) by (intros ->; apply (Hz b); reflexivity).
  pose proof (all_digits_bound a Ha) as Ba. rewrite dec_value_cons.
  assert (10 ^ N.of_nat (length a) <= 10 ^ N.of_nat (length b)) by (apply N.pow_le_mono_r; cbn [length] in Hl; lia).
  nia.
Qed.

(* drop_zeros *)
Lemma drop_zeros_cons c r : drop_zeros (c :: r) = if c =? 48 then drop_zeros r else c :: r.
Proof.
  destruct (N.eqb_spec c 48) as [->|H]; [reflexivity|].
  destruct c as [|p]; [reflexivity|].
  do 6 (try (destruct p as [p|p|]; try reflexivity)). congruence.
Qed.

Lemma drop_zeros_value s : dec_value (drop_zeros s) = dec_value s.
Proof.
  induction s as [|c s IH]; [reflexivity|]. rewrite drop_zeros_cons. destruct (N.eqb_spec c 48) as [->|H]; [|reflexivity].
  rewrite IH, dec_value_cons. lia.
Qed.

Lemma drop_zeros_all_digits s : all_digits s = true -> all_digits (drop_zeros s) = true.
Proof.
  induction s as [|c s IH]; [auto|]. rewrite drop_zeros_cons. destruct (c =? 48); [|auto].
  cbn [all_digits]. rewrite andb_true_iff. intros [_ H]. auto.
Qed.

Lemma drop_zeros_head s r : drop_zeros s <> 48 :: r.
Proof.
  induction s as [|c s IH]; [discriminate|]. rewrite drop_zeros_cons. destruct (N.eqb_spec c 48) as [->|H]; [exact IH|].
  congruence.
Qed.

Lemma drop_zeros_repeat n s : drop_zeros (repeat 48 n ++ s) = drop_zeros s.
Proof. induction n as [|n IH]; cbn [repeat app]; [reflexivity|]. rewrite drop_zeros_cons. exact IH. Qed.

Lemma drop_zeros_id s : (forall r, s <> 48 :: r) -> drop_zeros s = s.
Proof.
  destruct s as [|c s]; [reflexivity|]. intros H. rewrite drop_zeros_cons.
  destruct (N.eqb_spec c 48) as [->|_]; [exfalso; apply (H s); reflexivity | reflexivity].
Qed.

(* the first digit of dec k is not 0 unless k = 0 *)
Lemma dec_digits_head_nz fuel : forall n acc, 0 < n -> n < 10 ^ N.of_nat fuel ->
  forall r, dec_digits fuel n acc <> 48 :: r.
Proof.
  induction fuel as [|f IH]; intros n acc Hp Hn r.
  - change (10 ^ N.of_nat 0) with 1 in Hn. lia.
  - cbn [dec_digits]. destruct (N.ltb_spec n 10) as [Hlt|Hge].
    + rewrite N.mod_small by assumption. intros E. assert (E0 : 48 + n = 48) by congruence. lia.
    + rewrite Nat2N.inj_succ, N.pow_succ_r' in Hn.
      apply IH; [|apply N.div_lt_upper_bound; lia].
      apply N.div_str_pos. lia.
Qed.

Lemma dec_head_nz k : 0 < k -> forall r, dec k <> 48 :: r.
Proof.
  intros Hk. unfold dec. apply dec_digits_head_nz; [exact Hk|].
  rewrite Nat2N.inj_succ, N2Nat.id. destruct k as [|p]; [lia|].
  pose proof (N.log2_spec (N.pos p) ltac:(lia)) as [_ H]. pose proof (pow2_le_pow10 (N.succ (N.log2 (N.pos p)))). lia.
Qed.

(* the digits that the model writes for a restart counter, and what the sort key keeps of them *)
Definition restart_digits (k : N) : bytes := pad_left 4 48 (dec k).

Lemma restart_digits_all k : all_digits (restart_digits k) = true.
Proof. apply pad_dec_all. Qed.

Lemma restart_digits_nonempty k : restart_digits k <> [].
Proof. apply pad_dec_nonempty. Qed.

Theorem drop_zeros_restart_digits k : 0 < k -> drop_zeros (pad_left 4 48 (dec k)) = dec k.
Proof. intros Hk. unfold pad_left. rewrite drop_zeros_repeat. apply drop_zeros_id, dec_head_nz, Hk. Qed.

Theorem drop_zeros_restart_digits_0 : drop_zeros (pad_left 4 48 (dec 0)) = [].
Proof. reflexivity. Qed.

Lemma pad_dec_value w k : dec_value (drop_zeros (pad_left w 48 (dec k))) = k.
Proof. unfold pad_left. rewrite drop_zeros_value, dec_value_zeros. apply dec_value_dec. Qed.

Lemma restart_digits_value k : dec_value (drop_zeros (restart_digits k)) = k.
Proof. apply pad_dec_value. Qed.

Theorem dec_length_mono k1 k2 : k1 <= k2 -> (length (dec k1) <= length (dec k2))%nat.
Proof.
  intros Hle. destruct (N.eq_dec k1 0) as [->|Hnz].
  - pose proof (dec_nonempty k2). destruct (dec k2); [congruence|]. cbn. lia.
  - destruct (Nat.le_gt_cases (length (dec k1)) (length (dec k2))) as [H|H]; [exact H|exfalso].
    pose proof (shorter_smaller (dec k2) (dec k1) (dec_all_digits _) (dec_all_digits _) (dec_head_nz k1 ltac:(lia)) H) as X.
    rewrite !dec_value_dec in X. lia.
Qed.

Theorem dec_lex_le_iff k1 k2 : length (dec k1) = length (dec k2) -> (lex_le (dec k1) (dec k2) = true <-> k1 <= k2).
Proof.
  intros Hl. unfold lex_le. rewrite (lex_lt_value _ _ (dec_all_digits _) (dec_all_digits _) (eq_sym Hl)), !dec_value_dec. lia.
Qed.

Definition rkey_lt (a b : option (nat * bytes)) : Prop :=
  rkey_le a b = true /\ rkey_le b a = false /\ rkey_eq a b = false.

(* the restart keys of two counters are ordered like the counters *)
Lemma rkey_digits_lt a b :
  all_digits a = true -> all_digits b = true -> (forall r, a <> 48 :: r) -> (forall r, b <> 48 :: r) ->
  dec_value a < dec_value b ->
  rkey_le (Some (length a, a)) (Some (length b, b)) = true /\
  rkey_le (Some (length b, b)) (Some (length a, a)) = false /\
  rkey_eq (Some (length a, a)) (Some (length b, b)) = false.
Proof.
  intros Ha Hb Za Zb Hlt. cbn [rkey_le rkey_eq].
  destruct (Nat.eqb_spec (length a) (length b)) as [El|Nl].
  - rewrite <- El, Nat.eqb_refl. unfold lex_le.
    rewrite (lex_lt_value b a Hb Ha (eq_sym El)), (lex_lt_value a b Ha Hb El). cbn [andb].
    repeat split; try lia. apply beq_neq. intros ->. lia.
  - destruct (Nat.eqb_spec (length b) (length a)); [congruence|]. cbn [andb].
    assert (length a < length b)%nat.
    { destruct (Nat.lt_trichotomy (length a) (length b)) as [H|[H|H]]; [exact H|congruence|].
      pose proof (shorter_smaller b a Hb Ha Za H). lia. }
    repeat split; [apply Nat.ltb_lt; lia | apply Nat.ltb_ge; lia].
Qed.

(* padded numbers, whatever the width: the keys are ordered as the numbers are *)
Lemma rkey_pad_lt w k1 k2 : k1 < k2 ->
  let d1 := drop_zeros (pad_left w 48 (dec k1)) in let d2 := drop_zeros (pad_left w 48 (dec k2)) in
  rkey_lt (Some (length d1, d1)) (Some (length d2, d2)).
Proof.
  intros Hlt d1 d2. apply rkey_digits_lt; subst d1 d2;
    try (apply drop_zeros_all_digits, pad_dec_all); try (intros r; apply drop_zeros_head).
  rewrite !pad_dec_value. exact Hlt.
Qed.

(* ------------------------------------------------------------------------------------------------------ *)
(* 3b. the sort key of the names that the logger builds                                                     *)

Lemma sk_is_prefix_app p r : is_prefix p (p ++ r) = true.
Proof. apply is_prefix_app. Qed.
Lemma sk_skipn_app {A} (p r : list A) n : skipn (length p + n) (p ++ r) = skipn n r.
Proof. induction p as [|x p IH]; cbn [length skipn app Nat.add]; auto. Qed.
Lemma sk_firstn_app {A} (p r : list A) : firstn (length p) (p ++ r) = p.
Proof. apply firstn_length_app. Qed.

(* a name that ends with a digit does not end with ".gz" *)
Lemma sk_gz_digits X D : D <> [] -> all_digits D = true -> strip_suffix (dot :: gz_sfx) (X ++ D) = None.
Proof.
  intros Hne Hd. apply strip_suffix_none_iff.
  destruct (exists_last Hne) as [D' [c ->]]. rewrite all_digits_app in Hd. apply andb_prop in Hd. destruct Hd as [_ Hc].
  cbn [all_digits] in Hc. rewrite andb_true_r, is_digit_iff in Hc.
  rewrite app_assoc, rev_app_distr. cbn [rev gz_sfx app is_prefix].
  destruct (N.eqb_spec 122 c); [lia|reflexivity].
Qed.

(* the two stripping steps of sort_key, and what follows them *)
Definition sk_stem (sfx : option bytes) (n : bytes) : bytes :=
  let s1 := match strip_suffix (dot :: gz_sfx) n with Some s => s | None => n end in
  match sfx with
  | Some x => match strip_suffix (dot :: x) s1 with Some s => s | None => s1 end
  | None => s1
  end.
Definition stem_key (stem : bytes) : bytes * option (nat * bytes) :=
  match find_last_sub restart_tag stem with
  | Some ix => let digits := skipn (ix + 9) stem in
               if negb (beq digits []) && forallb is_digit digits
               then let d := drop_zeros digits in (firstn ix stem, Some (length d, d))
               else (stem, None)
  | None => (stem, None)
  end.
(* the second split: the number behind the last "_r" of the main part - or, without any "_r", behind a leading "r" *)
Definition main_split (main : bytes) : option (bytes * bytes) :=
  match find_last_sub number_tag main with
  | Some ix => Some (firstn ix main ++ number_tag, skipn (ix + 2) main)
  | None => match strip_prefix [r_char] main with
            | Some digits => Some ([r_char], digits)
            | None => None
            end
  end.
Definition main_key (main : bytes) : bytes * option (nat * bytes) :=
  match main_split main with
  | Some (head, digits) => if negb (beq digits []) && forallb is_digit digits
                           then let d := drop_zeros digits in (head, Some (length d, d))
                           else (main, None)
  | None => (main, None)
  end.
Definition full_key (stem : bytes) : bytes * option (nat * bytes) * option (nat * bytes) :=
  (fst (main_key (fst (stem_key stem))), snd (main_key (fst (stem_key stem))), snd (stem_key stem)).
Lemma sort_key_stem sfx n : sort_key sfx n = full_key (sk_stem sfx n).
Proof.
  unfold full_key. change (sort_key sfx n) with
    (let '(main, restart) := stem_key (sk_stem sfx n) in
     match main_split main with
     | Some (head, digits) => if negb (beq digits []) && forallb is_digit digits
                              then let d := drop_zeros digits in (head, Some (length d, d), restart)
                              else (main, None, restart)
     | None => (main, None, restart)
     end).
  destruct (stem_key (sk_stem sfx n)) as [m r]. cbn [fst snd]. unfold main_key.
  destruct (main_split m) as [[h d]|]; [|reflexivity].
  destruct (negb (beq d []) && forallb is_digit d); reflexivity.
Qed.

Definition add_gz (g : bool) (n : bytes) : bytes := if g then n ++ dot :: gz_sfx else n.

(* with or without an additional ".gz", the stem of a name built by with_suffix is the part before the suffix *)
Lemma sk_stem_with_suffix sp B g :
  strip_suffix (dot :: gz_sfx) (with_suffix sp B) = None ->
  sk_stem (fsfx sp) (add_gz g (with_suffix sp B)) = B.
Proof.
  intros Hgz. unfold sk_stem.
  assert (E : match strip_suffix (dot :: gz_sfx) (add_gz g (with_suffix sp B)) with Some s => s | None => add_gz g (with_suffix sp B) end
              = with_suffix sp B).
  { destruct g; cbn [add_gz]; [rewrite strip_suffix_app | rewrite Hgz]; reflexivity. }
  rewrite E. unfold with_suffix. destruct (fsfx sp) as [s|]; [|reflexivity]. rewrite strip_suffix_app. reflexivity.
Qed.

Lemma sk_is_prefix_split p : forall a b, is_prefix p (a ++ b) = true ->
  is_prefix p a = true \/ exists p2, p = a ++ p2 /\ is_prefix p2 b = true.
Proof.
  induction p as [|x p IH]; intros a b H; [left; reflexivity|].
  destruct a as [|y a].
  - right. exists (x :: p). split; [reflexivity | exact H].
  - cbn [app is_prefix] in *. apply andb_prop in H. destruct H as [Hxy H]. rewrite Hxy. cbn [andb].
    apply N.eqb_eq in Hxy. subst y.
    destruct (IH a b H) as [Hp|[p2 [-> Hp]]]; [left; exact Hp|right]. exists p2. split; [reflexivity | exact Hp].
Qed.

Lemma is_prefix_head c p x s : is_prefix (c :: p) (x :: s) = true -> c = x.
Proof. cbn [is_prefix]. intros H. apply andb_prop in H. destruct H as [H _]. apply N.eqb_eq in H. exact H. Qed.

(* a pattern whose first byte does not recur in it does not overlap itself *)
Lemma is_prefix_no_overlap c p x a D : ~ In c p -> is_prefix (c :: p) (x :: a) = false ->
  is_prefix (c :: p) ((x :: a) ++ (c :: p) ++ D) = false.
Proof.
  intros Hc Hn. destruct (is_prefix (c :: p) ((x :: a) ++ (c :: p) ++ D)) eqn:E; [exfalso|reflexivity].
  apply sk_is_prefix_split in E. destruct E as [E|[p2 [E1 E2]]]; [congruence|].
  cbn [app] in E1. injection E1 as <- E1. destruct p2 as [|q p2].
  - rewrite app_nil_r in E1. subst a. pose proof (sk_is_prefix_app (c :: p) []) as R. rewrite app_nil_r in R. congruence.
  - apply Hc. rewrite E1. apply in_or_app. right. left. cbn [app] in E2. exact (is_prefix_head q p2 c _ E2).
Qed.

Lemma contains_none pat s : contains pat s = false <-> find_sub pat s = None.
Proof. unfold contains. destruct (find_sub pat s); split; congruence. Qed.

(* hence behind a part without the pattern, its first occurrence is where it was appended *)
Lemma find_sub_app c p B D : ~ In c p -> contains (c :: p) B = false ->
  find_sub (c :: p) (B ++ (c :: p) ++ D) = Some (length B).
Proof.
  intros Hp. induction B as [|x B IH]; intros Hc.
  - pose proof (sk_is_prefix_app (c :: p) D) as P. cbn [app length] in P |- *. cbn [find_sub]. rewrite P. reflexivity.
  - apply contains_none in Hc. cbn [find_sub] in Hc.
    destruct (is_prefix (c :: p) (x :: B)) eqn:Ep; [discriminate|].
    assert (Hc' : contains (c :: p) B = false) by (apply contains_none; destruct (find_sub (c :: p) B); [discriminate | reflexivity]).
    pose proof (is_prefix_no_overlap c p x B D Hp Ep) as Eq.
    change ((x :: B) ++ (c :: p) ++ D) with (x :: B ++ (c :: p) ++ D) in Eq |- *. cbn [find_sub length]. rewrite Eq, (IH Hc'). reflexivity.
Qed.

Lemma restart_word_no_dot : ~ In dot restart_word.
Proof. unfold restart_word, dot. cbn [In]. intros X. repeat (destruct X as [X|X]; [discriminate X|]). exact X. Qed.

Lemma sk_find_tag_app B D : contains restart_tag B = false ->
  find_sub restart_tag (B ++ restart_tag ++ D) = Some (length B).
Proof. exact (find_sub_app dot restart_word B D restart_word_no_dot). Qed.

(* find_last_sub (str::rsplit_once): the LAST occurrence *)
Lemma find_last_sub_prefix pat : forall s ix, find_last_sub pat s = Some ix -> is_prefix pat (skipn ix s) = true.
Proof.
  induction s as [|x s IH]; intros ix H; cbn [find_last_sub] in H.
  - destruct (is_prefix pat []) eqn:E; [injection H as <-; exact E | discriminate].
  - destruct (find_last_sub pat s) as [j|] eqn:Ej.
    + injection H as <-. cbn [skipn]. apply IH. reflexivity.
    + destruct (is_prefix pat (x :: s)) eqn:E; [injection H as <-; exact E | discriminate].
Qed.

Lemma find_last_sub_none pat : forall s, find_last_sub pat s = None <-> find_sub pat s = None.
Proof.
  induction s as [|x s IH]; cbn [find_last_sub find_sub].
  - destruct (is_prefix pat []); split; congruence.
  - destruct (find_last_sub pat s) as [j|], (find_sub pat s) as [j'|]; destruct (is_prefix pat (x :: s));
      try (split; congruence); exfalso; destruct IH as [I1 I2]; (discriminate (I1 eq_refl) || discriminate (I2 eq_refl)).
Qed.

Lemma find_last_sub_lt pat : pat <> [] -> forall s ix, find_last_sub pat s = Some ix -> (ix < length s)%nat.
Proof.
  intros Hp. induction s as [|x s IH]; intros ix H; cbn [find_last_sub] in H.
  - destruct pat; [congruence | discriminate H].
  - cbn [length]. destruct (find_last_sub pat s) as [j|].
    + injection H as <-. specialize (IH j eq_refl). lia.
    + destruct (is_prefix pat (x :: s)); [injection H as <-; lia | discriminate].
Qed.

(* in front of the last occurrence anything may stand *)
Lemma find_last_sub_skip pat p : forall s i, find_last_sub pat s = Some i -> find_last_sub pat (p ++ s) = Some (length p + i)%nat.
Proof. induction p as [|c p IH]; intros s i H; cbn [app length Nat.add find_last_sub]; [exact H|]. rewrite (IH s i H). reflexivity. Qed.

Lemma find_last_sub_here pat c s : is_prefix pat (c :: s) = true -> find_sub pat s = None -> find_last_sub pat (c :: s) = Some O.
Proof. intros Hp Hn. cbn [find_last_sub]. rewrite (proj2 (find_last_sub_none pat s) Hn), Hp. reflexivity. Qed.

(* a pattern neither starts within a part that lacks its first byte, nor is it found there *)
Lemma contains_skip_head c p A B : ~ In c A -> contains (c :: p) (A ++ B) = contains (c :: p) B.
Proof.
  induction A as [|x A IH]; intros H; [reflexivity|].
  assert (E : is_prefix (c :: p) (x :: A ++ B) = false).
  { destruct (is_prefix (c :: p) (x :: A ++ B)) eqn:E; [exfalso|reflexivity]. apply H. left. symmetry. exact (is_prefix_head c p x _ E). }
  assert (IH' := IH (fun I => H (or_intror I))).
  unfold contains in *. cbn [app find_sub]. rewrite E. destruct (find_sub (c :: p) (A ++ B)); exact IH'.
Qed.

Lemma no_head_no_sub c p s : ~ In c s -> find_sub (c :: p) s = None.
Proof. intros H. apply contains_none. rewrite <- (app_nil_r s), (contains_skip_head c p s [] H). reflexivity. Qed.

Lemma all_digits_no_dot D : all_digits D = true -> ~ In dot D.
Proof.
  induction D as [|c D IH]; [intros _ []|]. cbn [all_digits]. rewrite andb_true_iff, is_digit_iff. intros [Hc Hd] [E|I]; [|exact (IH Hd I)].
  unfold dot in E. lia.
Qed.

(* THE LAST OCCURRENCE of a pattern: behind ANY part B, when it is not found again behind its first byte *)
Lemma find_last_sub_app c p B D : find_sub (c :: p) (p ++ D) = None ->
  find_last_sub (c :: p) (B ++ (c :: p) ++ D) = Some (length B).
Proof.
  intros H. rewrite (find_last_sub_skip (c :: p) B ((c :: p) ++ D) O); [f_equal; lia|].
  apply (find_last_sub_here (c :: p) c (p ++ D)); [exact (sk_is_prefix_app (c :: p) D) | exact H].
Qed.

Lemma sk_find_last_tag_app B D : contains restart_tag D = false ->
  find_last_sub restart_tag (B ++ restart_tag ++ D) = Some (length B).
Proof.
  intros Hd. apply (find_last_sub_app dot restart_word). apply contains_none.
  rewrite contains_skip_head; [exact Hd | exact restart_word_no_dot].
Qed.

Lemma sk_find_last_tag_digits B D : all_digits D = true -> find_last_sub restart_tag (B ++ restart_tag ++ D) = Some (length B).
Proof. intros Hd. apply sk_find_last_tag_app, contains_none, (no_head_no_sub dot restart_word), all_digits_no_dot, Hd. Qed.

Lemma stem_key_plain B : contains restart_tag B = false -> stem_key B = (B, None).
Proof.
  intros H. apply contains_none, find_last_sub_none in H. unfold stem_key. rewrite H. reflexivity.
Qed.

(* whatever the stem is: either it is its own main part, or the main part is a proper prefix of it *)
Lemma stem_key_cases B : stem_key B = (B, None) \/ exists ix r, (ix < length B)%nat /\ stem_key B = (firstn ix B, Some r).
Proof.
  unfold stem_key. destruct (find_last_sub restart_tag B) as [ix|] eqn:E; [|left; reflexivity]. cbv zeta.
  destruct (negb (beq (skipn (ix + 9) B) []) && forallb is_digit (skipn (ix + 9) B)); [right | left; reflexivity].
  exists ix. eexists. split; [|reflexivity]. apply (find_last_sub_lt restart_tag) in E; [exact E | discriminate].
Qed.

(* no hypothesis on B: the counter is read behind the LAST ".restart-" *)
Lemma stem_key_restart B D : D <> [] -> all_digits D = true ->
  stem_key (B ++ restart_tag ++ D) = (B, Some (length (drop_zeros D), drop_zeros D)).
Proof.
  intros Hne Hd. unfold stem_key. rewrite (sk_find_last_tag_digits B D Hd). cbv zeta.
  rewrite sk_skipn_app. change (skipn 9 (restart_tag ++ D)) with D.
  rewrite forallb_is_digit, Hd, sk_firstn_app. destruct D; [congruence|]. reflexivity.
Qed.

(* the decomposition  <anything> <non-digit> <digits>  of a string is unique *)
Lemma sk_all_digits_in s c : all_digits s = true -> In c s -> is_digit c = true.
Proof.
  induction s as [|x s IH]; [intros _ []|]. cbn [all_digits]. rewrite andb_true_iff. intros [Hx Hs] [<-|I]; [exact Hx | exact (IH Hs I)].
Qed.

Lemma sk_last_nondigit (u v a b : bytes) (x y : N) :
  all_digits a = true -> all_digits b = true -> is_digit x = false -> is_digit y = false ->
  u ++ x :: a = v ++ y :: b -> x = y.
Proof.
  intros Ha Hb Hx Hy. revert v. induction u as [|p u IH]; intros [|q v] H; cbn [app] in H.
  - injection H as H _. exact H.
  - injection H as _ H. exfalso. assert (I : In y a) by (rewrite H; apply in_or_app; right; left; reflexivity).
    rewrite (sk_all_digits_in _ _ Ha I) in Hy. discriminate.
  - injection H as _ H. exfalso. assert (I : In x b) by (rewrite <- H; apply in_or_app; right; left; reflexivity).
    rewrite (sk_all_digits_in _ _ Hb I) in Hx. discriminate.
  - injection H as _ H. apply (IH v H).
Qed.

Lemma sk_skipn_skipn {A} (l : list A) : forall b a, skipn a (skipn b l) = skipn (b + a) l.
Proof.
  induction l as [|x l IH]; intros b a; [rewrite !skipn_nil; reflexivity|].
  destruct b as [|b]; [reflexivity|]. cbn [skipn Nat.add]. apply IH.
Qed.

Lemma sk_prefix_split pat s ix : is_prefix pat (skipn ix s) = true -> s = firstn ix s ++ pat ++ skipn (ix + length pat) s.
Proof.
  intros E. assert (S : strip_prefix pat (skipn ix s) = Some (skipn (length pat) (skipn ix s))) by (unfold strip_prefix; rewrite E; reflexivity).
  apply strip_prefix_spec in S. rewrite sk_skipn_skipn in S.
  rewrite <- (firstn_skipn ix s) at 1. rewrite S at 1. reflexivity.
Qed.

(* whatever the stem is: either it is its own main part, or it is  <main part> .restart- <digits> *)
Lemma stem_key_cases' B : stem_key B = (B, None) \/
  exists X D r, B = X ++ restart_tag ++ D /\ D <> [] /\ all_digits D = true /\ stem_key B = (X, Some r).
Proof.
  unfold stem_key. destruct (find_last_sub restart_tag B) as [ix|] eqn:E; [|left; reflexivity]. cbv zeta.
  destruct (negb (beq (skipn (ix + 9) B) []) && forallb is_digit (skipn (ix + 9) B)) eqn:C; [right | left; reflexivity].
  apply andb_prop in C. destruct C as [C1 C2]. rewrite forallb_is_digit in C2.
  exists (firstn ix B), (skipn (ix + 9) B). eexists. split; [|split; [|split; [exact C2 | reflexivity]]].
  - apply find_last_sub_prefix in E. exact (sk_prefix_split restart_tag B ix E).
  - intros Z. rewrite Z in C1. discriminate C1.
Qed.

(* a stem that ends with  <non-digit other than "-"> <digits>  has no restart counter *)
Lemma stem_key_tail B u x D : B = u ++ x :: D -> all_digits D = true -> is_digit x = false -> x <> 45 -> stem_key B = (B, None).
Proof.
  intros HB HD Hx Hne. destruct (stem_key_cases' B) as [E|(X & D' & r & HB' & _ & HD' & _)]; [exact E | exfalso].
  rewrite HB in HB'. change (restart_tag ++ D') with ([46; 114; 101; 115; 116; 97; 114; 116] ++ 45 :: D') in HB'. rewrite app_assoc in HB'.
  exact (Hne (sk_last_nondigit _ _ _ _ x 45 HD HD' Hx eq_refl HB')).
Qed.

(* the main part: either it is its own head, or it is  <head ending with "r"> <digits> *)
Lemma main_split_spec B h E : main_split B = Some (h, E) -> B = h ++ E /\ exists h0, h = h0 ++ [r_char].
Proof.
  unfold main_split. destruct (find_last_sub number_tag B) as [ix|] eqn:F.
  - intros H. injection H as <- <-. apply find_last_sub_prefix in F. split.
    + rewrite <- app_assoc. exact (sk_prefix_split number_tag B ix F).
    + exists (firstn ix B ++ [uscore]). rewrite <- app_assoc. reflexivity.
  - destruct (strip_prefix [r_char] B) as [d|] eqn:P; [|discriminate]. intros H. injection H as <- <-.
    apply strip_prefix_spec in P. split; [exact P | exists []; reflexivity].
Qed.

Lemma main_key_cases B : main_key B = (B, None) \/
  exists h0 E, B = (h0 ++ [r_char]) ++ E /\ E <> [] /\ all_digits E = true /\
               main_key B = (h0 ++ [r_char], Some (length (drop_zeros E), drop_zeros E)).
Proof.
  unfold main_key. destruct (main_split B) as [[h E]|] eqn:S; [|left; reflexivity].
  destruct (negb (beq E []) && forallb is_digit E) eqn:C; [right | left; reflexivity].
  apply andb_prop in C. destruct C as [C1 C2]. rewrite forallb_is_digit in C2.
  destruct (main_split_spec B h E S) as [HB [h0 ->]].
  exists h0, E. split; [exact HB|]. split; [|split; [exact C2 | reflexivity]].
  intros Z. rewrite Z in C1. discriminate C1.
Qed.

(* a main part that ends with  <non-digit other than "r"> <digits>  has no number *)
Lemma main_key_tail B u x D : B = u ++ x :: D -> all_digits D = true -> is_digit x = false -> x <> r_char -> main_key B = (B, None).
Proof.
  intros HB HD Hx Hne. destruct (main_key_cases B) as [E|(h0 & D' & HB' & _ & HD' & _)]; [exact E | exfalso].
  rewrite HB, <- app_assoc in HB'.
  exact (Hne (sk_last_nondigit _ _ _ _ x r_char HD HD' Hx eq_refl HB')).
Qed.

(* the head is a prefix of the main part *)
Lemma main_key_head B : exists t, B = fst (main_key B) ++ t.
Proof.
  destruct (main_key_cases B) as [E|(h0 & D & HB & _ & _ & E)]; rewrite E; cbn [fst].
  - exists []. rewrite app_nil_r. reflexivity.
  - exists D. exact HB.
Qed.

Lemma all_digits_no_uscore D : all_digits D = true -> ~ In uscore D.
Proof. intros HD I. pose proof (sk_all_digits_in _ _ HD I) as X. discriminate X. Qed.

(* no hypothesis on F: the number is read behind the LAST "_r" *)
Lemma main_key_number F D : D <> [] -> all_digits D = true ->
  main_key (F ++ number_tag ++ D) = (F ++ number_tag, Some (length (drop_zeros D), drop_zeros D)).
Proof.
  intros Hne Hd. unfold main_key, main_split.
  assert (E : find_last_sub number_tag (F ++ number_tag ++ D) = Some (length F)).
  { apply (find_last_sub_app uscore [r_char]). apply no_head_no_sub.
    intros [X|X]; [discriminate X | exact (all_digits_no_uscore D Hd X)]. }
  rewrite E. cbv beta iota. rewrite sk_skipn_app. change (skipn 2 (number_tag ++ D)) with D.
  rewrite forallb_is_digit, Hd, sk_firstn_app. destruct D; [congruence|]. reflexivity.
Qed.

(* a main part without any "_r" that is  r <digits>  (no basename, no discriminant): the number behind the leading "r" *)
Lemma main_key_number_nil D : D <> [] -> all_digits D = true ->
  main_key (r_char :: D) = ([r_char], Some (length (drop_zeros D), drop_zeros D)).
Proof.
  intros Hne Hd. unfold main_key, main_split.
  rewrite (proj2 (find_last_sub_none number_tag (r_char :: D))).
  - change (strip_prefix [r_char] (r_char :: D)) with (Some D). cbv beta iota.
    rewrite forallb_is_digit, Hd. destruct D; [congruence|]. reflexivity.
  - apply (no_head_no_sub uscore [r_char]). intros [X|X]; [discriminate X | exact (all_digits_no_uscore D Hd X)].
Qed.

(* both: behind the fixed name part and its "_" - if there is one - the infix  r <digits> *)
Lemma main_key_number_under fixed D : D <> [] -> all_digits D = true ->
  main_key (under fixed ++ r_char :: D) = (under fixed ++ [r_char], Some (length (drop_zeros D), drop_zeros D)).
Proof.
  intros Hne Hd. destruct fixed as [|c fx]; [exact (main_key_number_nil D Hne Hd)|].
  unfold under. rewrite <- !app_assoc. exact (main_key_number (c :: fx) D Hne Hd).
Qed.

(* ------------------------------------------------------------------------------------------------------ *)
(* 3c. THE NAMING THEOREM                                                                                    *)

Definition restart_infix (i : bytes) (k : N) : bytes := i ++ restart_tag ++ pad_left 4 48 (dec k).

Lemma restart_infix_nonempty i k : restart_infix i k <> [].
Proof. unfold restart_infix, restart_tag. destruct i; discriminate. Qed.

Lemma sk_as_name_some sp fixed j : j <> [] -> as_name sp fixed (Some j) = with_suffix sp (under fixed ++ j).
Proof. apply as_name_some. Qed.

Lemma as_name_restart sp fixed i k :
  as_name sp fixed (Some (restart_infix i k)) = with_suffix sp ((under fixed ++ i) ++ restart_tag ++ restart_digits k).
Proof.
  rewrite (sk_as_name_some _ _ _ (restart_infix_nonempty i k)). unfold restart_infix, restart_digits.
  rewrite app_assoc. reflexivity.
Qed.

(* the hypothesis on the uncompressed name (the same as in FamilyFacts.full_infix_as_name): with a suffix s it
   says that s is not "gz" and does not end with ".gz"; it carries over to the names that end with digits *)
Lemma with_suffix_no_gz_digits sp fixed j X D : j <> [] ->
  strip_suffix (dot :: gz_sfx) (as_name sp fixed (Some j)) = None ->
  D <> [] -> all_digits D = true ->
  strip_suffix (dot :: gz_sfx) (with_suffix sp (X ++ D)) = None.
Proof.
  intros Hne. rewrite (sk_as_name_some _ _ _ Hne). unfold with_suffix. destruct (fsfx sp) as [s|].
  - rewrite !strip_suffix_none_iff, !gz_prefix_sfx. auto.
  - intros _ HD1 HD2. apply sk_gz_digits; assumption.
Qed.

(* the key of a stem without restart counter *)
Definition plain_key (B : bytes) : bytes * option (nat * bytes) * option (nat * bytes) :=
  (fst (main_key B), snd (main_key B), None).

Lemma sort_key_plain_name sp fixed i g : i <> [] ->
  contains restart_tag (under fixed ++ i) = false ->
  strip_suffix (dot :: gz_sfx) (as_name sp fixed (Some i)) = None ->
  sort_key (fsfx sp) (add_gz g (as_name sp fixed (Some i))) = plain_key (under fixed ++ i).
Proof.
  intros Hne Hc Hgz. rewrite (sk_as_name_some _ _ _ Hne) in *.
  rewrite sort_key_stem, (sk_stem_with_suffix _ _ _ Hgz). unfold full_key, plain_key. rewrite (stem_key_plain _ Hc). reflexivity.
Qed.

(* without the hypothesis on ".restart-": the stem is its own main part, or it is  <main part> .restart- <digits> *)
Lemma sort_key_plain_name_cases sp fixed i g : i <> [] ->
  strip_suffix (dot :: gz_sfx) (as_name sp fixed (Some i)) = None ->
  let n0 := add_gz g (as_name sp fixed (Some i)) in
  sort_key (fsfx sp) n0 = plain_key (under fixed ++ i)
  \/ exists X D r, under fixed ++ i = X ++ restart_tag ++ D /\ D <> [] /\ all_digits D = true /\
                   sort_key (fsfx sp) n0 = (fst (main_key X), snd (main_key X), Some r).
Proof.
  intros Hne Hgz n0. subst n0. rewrite (sk_as_name_some _ _ _ Hne) in *.
  rewrite sort_key_stem, (sk_stem_with_suffix _ _ _ Hgz). unfold full_key, plain_key.
  destruct (stem_key_cases' (under fixed ++ i)) as [E|(X & D & r & HB & HD1 & HD2 & E)]; rewrite E; cbn [fst snd].
  - left. reflexivity.
  - right. exists X, D, r. repeat split; assumption.
Qed.

(* the fixed name part and the infix may contain ".restart-" themselves: the counter is the one behind the last one *)
Lemma sort_key_restart_name sp fixed i j k g : j <> [] ->
  strip_suffix (dot :: gz_sfx) (as_name sp fixed (Some j)) = None ->
  sort_key (fsfx sp) (add_gz g (as_name sp fixed (Some (restart_infix i k))))
  = (fst (main_key (under fixed ++ i)), snd (main_key (under fixed ++ i)),
     Some (length (drop_zeros (restart_digits k)), drop_zeros (restart_digits k))).
Proof.
  intros Hne Hgz. rewrite as_name_restart.
  pose proof (with_suffix_no_gz_digits sp fixed j ((under fixed ++ i) ++ restart_tag) _ Hne Hgz
                (restart_digits_nonempty k) (restart_digits_all k)) as G.
  rewrite <- app_assoc in G. rewrite sort_key_stem, (sk_stem_with_suffix _ _ _ G).
  unfold full_key. rewrite stem_key_restart; [reflexivity | apply restart_digits_nonempty | apply restart_digits_all].
Qed.

(* names with the same main part and different number keys are ordered by the number keys *)
Lemma key_le_by_nkey sfx x y m nx ny rx ry :
  sort_key sfx x = (m, nx, rx) -> sort_key sfx y = (m, ny, ry) -> rkey_eq nx ny = false -> key_le sfx x y = rkey_le nx ny.
Proof. intros Ex Ey Hne. unfold key_le. rewrite Ex, Ey, beq_refl, Hne. reflexivity. Qed.

(* names with different main parts are ordered by the main parts *)
Lemma key_le_by_main sfx x y mx my nx ny rx ry :
  sort_key sfx x = (mx, nx, rx) -> sort_key sfx y = (my, ny, ry) -> mx <> my -> key_le sfx x y = lex_le mx my.
Proof. intros Ex Ey Hne. unfold key_le. rewrite Ex, Ey, (beq_neq _ _ Hne). reflexivity. Qed.

(* a proper prefix is smaller *)
Lemma lex_lt_firstn B : forall ix, (ix < length B)%nat -> lex_lt (firstn ix B) B = true.
Proof.
  induction B as [|x B IH]; intros ix H; [cbn [length] in H; lia|].
  destruct ix as [|ix]; [reflexivity|]. cbn [firstn lex_lt length] in *. rewrite N.ltb_irrefl, N.eqb_refl. cbn [orb andb].
  apply IH. lia.
Qed.

Lemma firstn_proper (B : bytes) ix : (ix < length B)%nat -> firstn ix B <> B.
Proof. intros H E. apply (f_equal (@length N)) in E. rewrite firstn_length in E. lia. Qed.

Lemma lex_lt_app_proper (h t : bytes) : t <> [] -> lex_lt h (h ++ t) = true /\ h <> h ++ t.
Proof.
  intros Ht. assert (L : (length h < length (h ++ t))%nat) by (rewrite app_length; destruct t; [congruence | cbn [length]; lia]).
  rewrite <- (sk_firstn_app h t) at 1 3. split; [apply lex_lt_firstn, L | apply firstn_proper, L].
Qed.

Lemma rkey_eq_sym a b : rkey_eq a b = rkey_eq b a.
Proof.
  destruct (rkey_eq a b) eqn:E1, (rkey_eq b a) eqn:E2; try reflexivity.
  - apply rkey_eq_iff in E1. subst b. rewrite (proj2 (rkey_eq_iff a a) eq_refl) in E2. discriminate.
  - apply rkey_eq_iff in E2. subst b. rewrite (proj2 (rkey_eq_iff a a) eq_refl) in E1. discriminate.
Qed.

(* names with the same main part, and the number keys in strict order, or the same number key and the restart keys in
   strict order, are in strict order *)
Lemma key_le_strict sfx x y m nx ny rx ry :
  sort_key sfx x = (m, nx, rx) -> sort_key sfx y = (m, ny, ry) ->
  rkey_lt nx ny \/ (nx = ny /\ rkey_lt rx ry) ->
  key_le sfx x y = true /\ key_le sfx y x = false.
Proof.
  intros Ex Ey H. unfold key_le. rewrite Ex, Ey, beq_refl. destruct H as [(L12 & L21 & Q)|[<- (L12 & L21 & Q)]].
  - rewrite (rkey_eq_sym ny nx), Q. split; assumption.
  - rewrite (proj2 (rkey_eq_iff nx nx) eq_refl), (rkey_eq_sym ry rx), Q. split; assumption.
Qed.

(* (a)+(c): the file without restart counter sorts strictly before every file with one; g0, g1 say whether
   the respective file is compressed (carries an additional ".gz").  No hypothesis on ".restart-" in the fixed
   name part or in the infix: if the stem under fixed ++ i itself ends with ".restart-<digits>", the main part of
   the plain name is a proper prefix of the main part of the other one (which, ending with "-<digits>", carries no
   number), and the plain name still comes first *)
Theorem naming_plain_before_restart : forall sp sfx fixed i k (g0 g1 : bool),
  fsfx sp = sfx -> i <> [] ->
  strip_suffix (dot :: gz_sfx) (as_name sp fixed (Some i)) = None ->
  let n0 := add_gz g0 (as_name sp fixed (Some i)) in
  let n1 := add_gz g1 (as_name sp fixed (Some (restart_infix i k))) in
  key_le sfx n0 n1 = true /\ key_le sfx n1 n0 = false.
Proof.
  intros sp sfx fixed i k g0 g1 <- Hne Hgz n0 n1. subst n0 n1.
  pose proof (sort_key_restart_name sp fixed i i k g1 Hne Hgz) as E1.
  destruct (sort_key_plain_name_cases sp fixed i g0 Hne Hgz) as [E0|(X & D & r & HB & HD1 & HD2 & E0)].
  - unfold plain_key in E0. apply (key_le_strict _ _ _ _ _ _ _ _ E0 E1). right. repeat split.
  - assert (EB : main_key (under fixed ++ i) = (under fixed ++ i, None)).
    { apply (main_key_tail _ (X ++ [46; 114; 101; 115; 116; 97; 114; 116]) 45 D); [|exact HD2 | reflexivity | discriminate].
      rewrite HB, <- app_assoc. reflexivity. }
    rewrite EB in E1. cbn [fst snd] in E1.
    destruct (main_key_head X) as [t Ht].
    assert (HP : under fixed ++ i = fst (main_key X) ++ (t ++ restart_tag ++ D)) by (rewrite app_assoc, <- Ht; exact HB).
    destruct (lex_lt_app_proper (fst (main_key X)) (t ++ restart_tag ++ D)) as [Hl Hd].
    { intros Z. apply app_eq_nil in Z. destruct Z as [_ Z]. discriminate Z. }
    rewrite <- HP in Hl, Hd. split.
    + rewrite (key_le_by_main _ _ _ _ _ _ _ _ _ E0 E1 Hd). unfold lex_le. rewrite (lex_lt_asym _ _ Hl). reflexivity.
    + rewrite (key_le_by_main _ _ _ _ _ _ _ _ _ E1 E0 (fun E => Hd (eq_sym E))). unfold lex_le. rewrite Hl. reflexivity.
Qed.

(* (b)+(c): restart counters sort numerically, strictly.  No hypothesis on the number of digits, none on ".restart-"
   in the fixed name part or in the infix (the sort key reads the counter behind the LAST ".restart-"); the hypothesis
   on ".gz" may be given for any non-empty infix j (it only concerns the suffix when there is one, and is not
   needed at all without suffix) *)
Theorem naming_restart_order : forall sp sfx fixed i j k1 k2 (g1 g2 : bool),
  fsfx sp = sfx -> j <> [] ->
  strip_suffix (dot :: gz_sfx) (as_name sp fixed (Some j)) = None ->
  k1 < k2 ->
  let n1 := add_gz g1 (as_name sp fixed (Some (restart_infix i k1))) in
  let n2 := add_gz g2 (as_name sp fixed (Some (restart_infix i k2))) in
  key_le sfx n1 n2 = true /\ key_le sfx n2 n1 = false.
Proof.
  intros sp sfx fixed i j k1 k2 g1 g2 <- Hne Hgz Hlt n1 n2. subst n1 n2.
  pose proof (sort_key_restart_name sp fixed i j k1 g1 Hne Hgz) as E1.
  pose proof (sort_key_restart_name sp fixed i j k2 g2 Hne Hgz) as E2.
  apply (key_le_strict _ _ _ _ _ _ _ _ E1 E2). right. split; [reflexivity|]. exact (rkey_pad_lt 4 k1 k2 Hlt).
Qed.

(* the uncompressed instances, as in the task statement *)
Corollary naming_a : forall sp sfx fixed i k,
  fsfx sp = sfx -> i <> [] ->
  strip_suffix (dot :: gz_sfx) (as_name sp fixed (Some i)) = None ->
  key_le sfx (as_name sp fixed (Some i)) (as_name sp fixed (Some (restart_infix i k))) = true /\
  key_le sfx (as_name sp fixed (Some (restart_infix i k))) (as_name sp fixed (Some i)) = false.
Proof. intros sp sfx fixed i k Hs Hne Hgz. exact (naming_plain_before_restart sp sfx fixed i k false false Hs Hne Hgz). Qed.

Corollary naming_b : forall sp sfx fixed i k1 k2,
  fsfx sp = sfx -> i <> [] ->
  strip_suffix (dot :: gz_sfx) (as_name sp fixed (Some i)) = None ->
  k1 < k2 ->
  key_le sfx (as_name sp fixed (Some (restart_infix i k1))) (as_name sp fixed (Some (restart_infix i k2))) = true /\
  key_le sfx (as_name sp fixed (Some (restart_infix i k2))) (as_name sp fixed (Some (restart_infix i k1))) = false.
Proof.
  intros sp sfx fixed i k1 k2 Hs Hne Hgz Hlt.
  exact (naming_restart_order sp sfx fixed i i k1 k2 false false Hs Hne Hgz Hlt).
Qed.

(* ------------------------------------------------------------------------------------------------------ *)
(* 4. in the listing (newest first) the higher restart counter comes first, the file without counter last  *)

Theorem listing_restart_order : forall sp sfx fixed i j k1 k2 (g1 g2 : bool) l,
  fsfx sp = sfx -> j <> [] ->
  strip_suffix (dot :: gz_sfx) (as_name sp fixed (Some j)) = None ->
  k1 < k2 ->
  let n1 := add_gz g1 (as_name sp fixed (Some (restart_infix i k1))) in
  let n2 := add_gz g2 (as_name sp fixed (Some (restart_infix i k2))) in
  In n1 l -> In n2 l ->
  exists l1 l2 l3, rev (sort_by_key sfx l) = l1 ++ n2 :: l2 ++ n1 :: l3.
Proof.
  intros sp sfx fixed i j k1 k2 g1 g2 l Hs Hne Hgz Hlt n1 n2 H1 H2.
  apply listing_order; [exact H1 | exact H2 |].
  exact (proj2 (naming_restart_order sp sfx fixed i j k1 k2 g1 g2 Hs Hne Hgz Hlt)).
Qed.

Theorem listing_plain_last : forall sp sfx fixed i k (g0 g1 : bool) l,
  fsfx sp = sfx -> i <> [] ->
  strip_suffix (dot :: gz_sfx) (as_name sp fixed (Some i)) = None ->
  let n0 := add_gz g0 (as_name sp fixed (Some i)) in
  let n1 := add_gz g1 (as_name sp fixed (Some (restart_infix i k))) in
  In n0 l -> In n1 l ->
  exists l1 l2 l3, rev (sort_by_key sfx l) = l1 ++ n1 :: l2 ++ n0 :: l3.
Proof.
  intros sp sfx fixed i k g0 g1 l Hs Hne Hgz n0 n1 H0 H1.
  apply listing_order; [exact H0 | exact H1 |].
  exact (proj2 (naming_plain_before_restart sp sfx fixed i k g0 g1 Hs Hne Hgz)).
Qed.

(* the same for the listing of a directory *)
Corollary related_files_restart_order : forall f sp sfx fixed i j k1 k2 (g1 g2 : bool),
  fsfx sp = sfx -> j <> [] ->
  strip_suffix (dot :: gz_sfx) (as_name sp fixed (Some j)) = None ->
  k1 < k2 ->
  let n1 := add_gz g1 (as_name sp fixed (Some (restart_infix i k1))) in
  let n2 := add_gz g2 (as_name sp fixed (Some (restart_infix i k2))) in
  In n1 (related_files f sfx fixed) -> In n2 (related_files f sfx fixed) ->
  exists l1 l2 l3, related_files f sfx fixed = l1 ++ n2 :: l2 ++ n1 :: l3.
Proof.
  intros f sp sfx fixed i j k1 k2 g1 g2 Hs Hne Hgz Hlt n1 n2. unfold related_files.
  rewrite <- !in_rev, !In_sort_by_key. apply listing_restart_order with (j := j); assumption.
Qed.

(* ------------------------------------------------------------------------------------------------------ *)
(* the hypotheses are satisfiable, and the conclusion computes: suffix "trc" (sorts after "restart-"),
   counters 9999 and 10000 (4 and 5 digits) *)
Import String.StringSyntax.
Delimit Scope string_scope with string.
Definition ex_sp : file_spec := {| fbase := bs "a"%string; fdisc := None; fts := false; fsfx := Some (bs "trc"%string) |}.
Definition ex_fixed : bytes := bs "a"%string.
Definition ex_infix : bytes := bs "r2024-02-29_23-59-58"%string.

Example ex_hypotheses :
  ex_infix <> [] /\
  strip_suffix (dot :: gz_sfx) (as_name ex_sp ex_fixed (Some ex_infix)) = None /\
  as_name ex_sp ex_fixed (Some (restart_infix ex_infix 9999)) = bs "a_r2024-02-29_23-59-58.restart-9999.trc"%string /\
  as_name ex_sp ex_fixed (Some (restart_infix ex_infix 10000)) = bs "a_r2024-02-29_23-59-58.restart-10000.trc"%string.
Proof. split; [discriminate|]. vm_compute. repeat split; reflexivity. Qed.

Example ex_conclusion :
  let n0 := as_name ex_sp ex_fixed (Some ex_infix) in
  let n1 := as_name ex_sp ex_fixed (Some (restart_infix ex_infix 9999)) in
  let n2 := as_name ex_sp ex_fixed (Some (restart_infix ex_infix 10000)) in
  let gz n := n ++ dot :: gz_sfx in
  (key_le (Some (bs "trc"%string)) n0 n1 && negb (key_le (Some (bs "trc"%string)) n1 n0) &&
   key_le (Some (bs "trc"%string)) n1 n2 && negb (key_le (Some (bs "trc"%string)) n2 n1) &&
   key_le (Some (bs "trc"%string)) (gz n1) n2 && negb (key_le (Some (bs "trc"%string)) n2 (gz n1)) &&
   key_le (Some (bs "trc"%string)) n1 (gz n2) && negb (key_le (Some (bs "trc"%string)) (gz n2) n1) &&
   (* the plain byte order would put 10000 before 9999 *)
   negb (lex_le n1 n2)) = true /\
  rev (sort_by_key (Some (bs "trc"%string)) [n1; gz n2; n0]) = [gz n2; n1; n0].
Proof. vm_compute. split; reflexivity. Qed.

(* the fixed name part may contain ".restart-" itself: basename "a.restart-7".  The sort key reads the counter behind
   the LAST ".restart-" of the stem (str::rsplit_once), so 9999 still sorts before 10000, and the file without counter
   first; with the first occurrence (str::split_once, the code before the repair) all three names had the main part "a"
   and no restart key, and the byte order put 10000 before 9999 *)
Definition ex_sp7 : file_spec := {| fbase := bs "a.restart-7"%string; fdisc := None; fts := false; fsfx := Some (bs "trc"%string) |}.
Definition ex_fixed7 : bytes := bs "a.restart-7"%string.
Example ex_tag_in_basename :
  let n0 := as_name ex_sp7 ex_fixed7 (Some ex_infix) in
  let n1 := as_name ex_sp7 ex_fixed7 (Some (restart_infix ex_infix 9999)) in
  let n2 := as_name ex_sp7 ex_fixed7 (Some (restart_infix ex_infix 10000)) in
  let gz n := n ++ dot :: gz_sfx in
  contains restart_tag (under ex_fixed7 ++ ex_infix) = true /\
  n1 = bs "a.restart-7_r2024-02-29_23-59-58.restart-9999.trc"%string /\
  n2 = bs "a.restart-7_r2024-02-29_23-59-58.restart-10000.trc"%string /\
  sort_key (Some (bs "trc"%string)) n1 = (bs "a.restart-7_r2024-02-29_23-59-58"%string, None, Some (4%nat, bs "9999"%string)) /\
  sort_key (Some (bs "trc"%string)) n2 = (bs "a.restart-7_r2024-02-29_23-59-58"%string, None, Some (5%nat, bs "10000"%string)) /\
  sort_key (Some (bs "trc"%string)) n0 = (bs "a.restart-7_r2024-02-29_23-59-58"%string, None, None) /\
  (key_le (Some (bs "trc"%string)) n0 n1 && negb (key_le (Some (bs "trc"%string)) n1 n0) &&
   key_le (Some (bs "trc"%string)) n1 n2 && negb (key_le (Some (bs "trc"%string)) n2 n1) &&
   key_le (Some (bs "trc"%string)) (gz n1) n2 && negb (key_le (Some (bs "trc"%string)) n2 (gz n1)) &&
   negb (lex_le n1 n2)) = true /\
  rev (sort_by_key (Some (bs "trc"%string)) [n1; gz n2; n0]) = [gz n2; n1; n0].
Proof. vm_compute. repeat split; reflexivity. Qed.

(* the same from the theorems, which have no hypothesis on ".restart-" any more *)
Example ex_tag_in_basename_thm :
  key_le (Some (bs "trc"%string)) (as_name ex_sp7 ex_fixed7 (Some (restart_infix ex_infix 9999)))
                                   (as_name ex_sp7 ex_fixed7 (Some (restart_infix ex_infix 10000))) = true /\
  key_le (Some (bs "trc"%string)) (as_name ex_sp7 ex_fixed7 (Some (restart_infix ex_infix 10000)))
                                   (as_name ex_sp7 ex_fixed7 (Some (restart_infix ex_infix 9999))) = false.
Proof. apply (naming_b ex_sp7 (Some (bs "trc"%string)) ex_fixed7 ex_infix 9999 10000); [reflexivity | discriminate | vm_compute; reflexivity | lia]. Qed.

(* a plain name whose own stem ends with ".restart-<digits>" (infix "x.restart-3"): its main part is a proper prefix
   of the main part of its restart siblings, it still sorts first *)
Example ex_tag_at_end_of_infix :
  let i := bs "x.restart-3"%string in
  let n0 := as_name ex_sp ex_fixed (Some i) in
  let n1 := as_name ex_sp ex_fixed (Some (restart_infix i 0)) in
  sort_key (Some (bs "trc"%string)) n0 = (bs "a_x"%string, None, Some (1%nat, bs "3"%string)) /\
  sort_key (Some (bs "trc"%string)) n1 = (bs "a_x.restart-3"%string, None, Some (0%nat, [])) /\
  key_le (Some (bs "trc"%string)) n0 n1 = true /\ key_le (Some (bs "trc"%string)) n1 n0 = false.
Proof. vm_compute. repeat split; reflexivity. Qed.

(* the hypothesis on ".gz" cannot be dropped: with a suffix that ends with ".gz" the sort key takes the suffix for
   the compression mark, finds no restart counter, and 10000 sorts before 9999 *)
Definition ex_sp_bad : file_spec := {| fbase := bs "a"%string; fdisc := None; fts := false; fsfx := Some (bs "log.gz"%string) |}.
Example ex_gz_suffix_needed :
  strip_suffix (dot :: gz_sfx) (as_name ex_sp_bad ex_fixed (Some ex_infix)) <> None /\
  key_le (fsfx ex_sp_bad) (as_name ex_sp_bad ex_fixed (Some (restart_infix ex_infix 10000)))
                          (as_name ex_sp_bad ex_fixed (Some (restart_infix ex_infix 9999))) = true /\
  key_le (fsfx ex_sp_bad) (as_name ex_sp_bad ex_fixed (Some (restart_infix ex_infix 9999)))
                          (as_name ex_sp_bad ex_fixed (Some (restart_infix ex_infix 10000))) = false.
Proof. vm_compute. repeat split; (discriminate || reflexivity). Qed.

Print Assumptions key_le_refl.
Print Assumptions key_le_total.
Print Assumptions key_le_trans.
Print Assumptions key_le_antisym.
Print Assumptions sort_by_key_perm.
Print Assumptions sort_by_key_strongly_sorted.
Print Assumptions sort_by_key_sorted.
Print Assumptions naming_plain_before_restart.
Print Assumptions naming_restart_order.
Print Assumptions naming_a.
Print Assumptions naming_b.
Print Assumptions listing_restart_order.
Print Assumptions listing_plain_last.
Print Assumptions related_files_restart_order.
Print Assumptions drop_zeros_restart_digits.
Print Assumptions dec_length_mono.
Print Assumptions dec_lex_le_iff.

(* ------------------------------------------------------------------------------------------------------ *)
(* 5. THE NUMBER INFIX: the files  <fixed>_r<number>  are ordered by the number, however many digits it has  *)

(* the digits that the model writes for a number infix, and what the sort key keeps of them *)
Definition number_digits (k : N) : bytes := pad_left 5 48 (dec k).

Lemma number_digits_all k : all_digits (number_digits k) = true.
Proof. apply pad_dec_all. Qed.

Lemma number_digits_nonempty k : number_digits k <> [].
Proof. apply pad_dec_nonempty. Qed.

Lemma number_infix_digits k : number_infix k = r_char :: number_digits k.
Proof. reflexivity. Qed.

(* the key of a number name: the part up to and including the "r" of the infix, the number without leading zeros, no
   restart counter - with a fixed name part (the "r" is the one of the last "_r") or without (the leading "r") *)
Lemma sort_key_number_name sp fixed j k g : j <> [] ->
  strip_suffix (dot :: gz_sfx) (as_name sp fixed (Some j)) = None ->
  sort_key (fsfx sp) (add_gz g (as_name sp fixed (Some (number_infix k))))
  = (under fixed ++ [r_char], Some (length (drop_zeros (number_digits k)), drop_zeros (number_digits k)), None).
Proof.
  intros Hne Hgz. rewrite (sk_as_name_some _ _ _ (number_infix_nonempty k)), number_infix_digits.
  change (under fixed ++ r_char :: number_digits k) with (under fixed ++ [r_char] ++ number_digits k). rewrite app_assoc.
  rewrite sort_key_stem, (sk_stem_with_suffix _ _ _ (with_suffix_no_gz_digits sp fixed j _ _ Hne Hgz (number_digits_nonempty k) (number_digits_all k))).
  unfold full_key. rewrite <- app_assoc. change ([r_char] ++ number_digits k) with (r_char :: number_digits k).
  rewrite (stem_key_tail _ (under fixed) r_char (number_digits k)); [| reflexivity | apply number_digits_all | reflexivity | discriminate].
  cbn [fst snd]. rewrite (main_key_number_under fixed _ (number_digits_nonempty k) (number_digits_all k)). reflexivity.
Qed.

(* THE NUMBER THEOREM: numbers sort numerically, strictly - no hypothesis on the number of digits, none on the fixed
   name part (the number is read behind the LAST "_r"; with an empty fixed name part behind the leading "r");
   g1, g2: compressed or not *)
Theorem naming_number_order : forall sp sfx fixed j k1 k2 (g1 g2 : bool),
  fsfx sp = sfx -> j <> [] ->
  strip_suffix (dot :: gz_sfx) (as_name sp fixed (Some j)) = None ->
  k1 < k2 ->
  let n1 := add_gz g1 (as_name sp fixed (Some (number_infix k1))) in
  let n2 := add_gz g2 (as_name sp fixed (Some (number_infix k2))) in
  key_le sfx n1 n2 = true /\ key_le sfx n2 n1 = false.
Proof.
  intros sp sfx fixed j k1 k2 g1 g2 <- Hne Hgz Hlt n1 n2. subst n1 n2.
  pose proof (sort_key_number_name sp fixed j k1 g1 Hne Hgz) as E1.
  pose proof (sort_key_number_name sp fixed j k2 g2 Hne Hgz) as E2.
  apply (key_le_strict _ _ _ _ _ _ _ _ E1 E2). left. exact (rkey_pad_lt 5 k1 k2 Hlt).
Qed.

(* in the listing (newest first) the higher number comes first *)
Theorem listing_number_order : forall sp sfx fixed j k1 k2 (g1 g2 : bool) l,
  fsfx sp = sfx -> j <> [] ->
  strip_suffix (dot :: gz_sfx) (as_name sp fixed (Some j)) = None ->
  k1 < k2 ->
  let n1 := add_gz g1 (as_name sp fixed (Some (number_infix k1))) in
  let n2 := add_gz g2 (as_name sp fixed (Some (number_infix k2))) in
  In n1 l -> In n2 l ->
  exists l1 l2 l3, rev (sort_by_key sfx l) = l1 ++ n2 :: l2 ++ n1 :: l3.
Proof.
  intros sp sfx fixed j k1 k2 g1 g2 l Hs Hne Hgz Hlt n1 n2 H1 H2.
  apply listing_order; [exact H1 | exact H2 |].
  exact (proj2 (naming_number_order sp sfx fixed j k1 k2 g1 g2 Hs Hne Hgz Hlt)).
Qed.

Corollary related_files_number_order : forall f sp sfx fixed j k1 k2 (g1 g2 : bool),
  fsfx sp = sfx -> j <> [] ->
  strip_suffix (dot :: gz_sfx) (as_name sp fixed (Some j)) = None ->
  k1 < k2 ->
  let n1 := add_gz g1 (as_name sp fixed (Some (number_infix k1))) in
  let n2 := add_gz g2 (as_name sp fixed (Some (number_infix k2))) in
  In n1 (related_files f sfx fixed) -> In n2 (related_files f sfx fixed) ->
  exists l1 l2 l3, related_files f sfx fixed = l1 ++ n2 :: l2 ++ n1 :: l3.
Proof.
  intros f sp sfx fixed j k1 k2 g1 g2 Hs Hne Hgz Hlt n1 n2. unfold related_files.
  rewrite <- !in_rev, !In_sort_by_key. apply listing_number_order with (j := j); assumption.
Qed.

Print Assumptions naming_number_order.
Print Assumptions listing_number_order.
Print Assumptions related_files_number_order.

(* --- examples --- *)
Definition ex_lsp : file_spec := {| fbase := bs "a"%string; fdisc := None; fts := false; fsfx := Some (bs "log"%string) |}.
Definition ex_log : option bytes := Some (bs "log"%string).

(* the hypotheses are satisfiable and the conclusion computes: 99999 (five digits) and 100000 (six digits) *)
Example ex_number_thm :
  as_name ex_lsp (bs "a"%string) (Some (number_infix 99999)) = bs "a_r99999.log"%string /\
  as_name ex_lsp (bs "a"%string) (Some (number_infix 100000)) = bs "a_r100000.log"%string /\
  key_le ex_log (bs "a_r99999.log"%string) (bs "a_r100000.log.gz"%string) = true /\
  key_le ex_log (bs "a_r100000.log.gz"%string) (bs "a_r99999.log"%string) = false /\
  (* the plain byte order would put 100000 first *)
  lex_le (bs "a_r100000.log.gz"%string) (bs "a_r99999.log"%string) = true.
Proof.
  split; [reflexivity|]. split; [reflexivity|].
  destruct (naming_number_order ex_lsp ex_log (bs "a"%string) (number_infix 0) 99999 100000 false true) as [H1 H2];
    [reflexivity | discriminate | vm_compute; reflexivity | lia |].
  split; [exact H1|]. split; [exact H2|]. vm_compute. reflexivity.
Qed.

(* a basename that contains "_r12": the name sorts by its LAST "_r" part *)
Example ex_last_number_tag :
  sort_key ex_log (bs "x_r12_r00005.log"%string) = (bs "x_r12_r"%string, Some (1%nat, bs "5"%string), None) /\
  sort_key ex_log (bs "x_r12_r100000.log.gz"%string) = (bs "x_r12_r"%string, Some (6%nat, bs "100000"%string), None) /\
  sort_key ex_log (bs "x_r12_rCURRENT.log"%string) = (bs "x_r12_rCURRENT"%string, None, None) /\
  sort_key ex_log (bs "x_r12.log"%string) = (bs "x_r"%string, Some (2%nat, bs "12"%string), None) /\
  rev (sort_by_key ex_log [bs "x_r12_r00005.log"%string; bs "x_r12_r100000.log.gz"%string; bs "x_r12_r99999.log"%string;
                           bs "x_r12_rCURRENT.log"%string; bs "x_r12_r00010.log"%string])
  = [bs "x_r12_rCURRENT.log"%string; bs "x_r12_r100000.log.gz"%string; bs "x_r12_r99999.log"%string;
     bs "x_r12_r00010.log"%string; bs "x_r12_r00005.log"%string].
Proof. vm_compute. repeat split; reflexivity. Qed.

(* the listing of a directory, newest first: rCURRENT, then the numbers descending, compressed or not *)
Definition ex_dir (l : list bytes) : fs := fold_left (fun f n => fst (create_file f n 0 0%Z)) l empty_fs.

Example ex_related_files_numbers :
  related_files (ex_dir [bs "a_r99999.log"%string; bs "a_r100000.log"%string; bs "a_r100001.log"%string;
                         bs "a_rCURRENT.log"%string; bs "a_r00007.log.gz"%string; bs "b_r00001.log"%string]) ex_log (bs "a"%string)
  = [bs "a_rCURRENT.log"%string; bs "a_r100001.log"%string; bs "a_r100000.log"%string; bs "a_r99999.log"%string;
     bs "a_r00007.log.gz"%string].
Proof. vm_compute. reflexivity. Qed.

(* time-stamp names and restart counters: the order is what it was (nothing behind their last "_r" is a number) *)
Example ex_related_files_timestamps :
  sort_key ex_log (bs "a_r2024-02-29_23-59-58.restart-0001.log"%string)
  = (bs "a_r2024-02-29_23-59-58"%string, None, Some (1%nat, bs "1"%string)) /\
  related_files (ex_dir [bs "a_r2024-02-29_23-59-58.restart-10000.log"%string; bs "a_r2024-02-29_23-59-58.log.gz"%string;
                         bs "a_r2024-02-29_23-59-58.restart-9999.log.gz"%string; bs "a_rCURRENT.log"%string;
                         bs "a_r2024-02-29_23-59-57.restart-0000.log"%string; bs "a_r2024-03-01_00-00-00.log"%string;
                         bs "a_r2024-02-29_23-59-58.restart-0000.log"%string]) ex_log (bs "a"%string)
  = [bs "a_rCURRENT.log"%string; bs "a_r2024-03-01_00-00-00.log"%string;
     bs "a_r2024-02-29_23-59-58.restart-10000.log"%string; bs "a_r2024-02-29_23-59-58.restart-9999.log.gz"%string;
     bs "a_r2024-02-29_23-59-58.restart-0000.log"%string; bs "a_r2024-02-29_23-59-58.log.gz"%string;
     bs "a_r2024-02-29_23-59-57.restart-0000.log"%string].
Proof. vm_compute. split; reflexivity. Qed.

(* AN EMPTY FIXED NAME PART (basename suppressed, no discriminant, no start time): the number names are
   r<digits>.<suffix>  without "_"; there is no "_r" in them, and the key reads the number behind the leading "r":
   "r100000" sorts after "r99999" and is listed before it.  (This was the counterexample ex_empty_fixed_unrepaired
   to the first version of the repair, which split at "_r" only.) *)
Definition ex_nsp : file_spec := {| fbase := []; fdisc := None; fts := false; fsfx := Some (bs "log"%string) |}.
Example ex_empty_fixed_repaired :
  fixed_name_part ex_nsp [] = [] /\
  as_name ex_nsp [] (Some (number_infix 99999)) = bs "r99999.log"%string /\
  as_name ex_nsp [] (Some (number_infix 100000)) = bs "r100000.log"%string /\
  sort_key ex_log (bs "r100000.log"%string) = (bs "r"%string, Some (6%nat, bs "100000"%string), None) /\
  key_le ex_log (bs "r100000.log"%string) (bs "r99999.log"%string) = false /\
  key_le ex_log (bs "r99999.log"%string) (bs "r100000.log"%string) = true /\
  related_files (ex_dir [bs "r99999.log"%string; bs "r100000.log"%string; bs "rCURRENT.log"%string; bs "r00007.log.gz"%string]) ex_log []
  = [bs "rCURRENT.log"%string; bs "r100000.log"%string; bs "r99999.log"%string; bs "r00007.log.gz"%string].
Proof. vm_compute. repeat split; reflexivity. Qed.

(* the same from the theorem, which has no hypothesis on the fixed name part *)
Example ex_empty_fixed_thm :
  key_le ex_log (bs "r99999.log"%string) (bs "r100000.log.gz"%string) = true /\
  key_le ex_log (bs "r100000.log.gz"%string) (bs "r99999.log"%string) = false.
Proof.
  exact (naming_number_order ex_nsp ex_log [] (number_infix 0) 99999 100000 false true eq_refl ltac:(discriminate) eq_refl ltac:(lia)).
Qed.

(* the leading "r" counts only when there is no "_r" at all, and only in front of digits: other names are as they were *)
Example ex_leading_r_only :
  sort_key ex_log (bs "r12_rCURRENT.log"%string) = (bs "r12_rCURRENT"%string, None, None) /\
  sort_key ex_log (bs "rCURRENT.log"%string) = (bs "rCURRENT"%string, None, None) /\
  sort_key ex_log (bs "r2024-02-29_23-59-58.restart-0001.log"%string) = (bs "r2024-02-29_23-59-58"%string, None, Some (1%nat, bs "1"%string)) /\
  sort_key ex_log (bs "xr00005.log"%string) = (bs "xr00005"%string, None, None).
Proof. vm_compute. repeat split; reflexivity. Qed.
