(* Why Hinnant's calendar algorithms (Time/Civil.v) are right.  Both count in years that begin on 1 March: day z lies
   in the March year y with year_start y <= z + 719468 < year_start (y + 1), and month and day are functions of the day
   of that year alone.  With all divisors constant, that civil_from_days finds this year is linear arithmetic. *)
Require Import FL.Time.Civil.
From Coq Require Import ZArith Bool Lia.
Open Scope Z_scope.

Definition lex3 (a b : Z * Z * Z) : Prop :=
  let '(y, m, d) := a in let '(y', m', d') := b in y < y' \/ (y = y' /\ (m < m' \/ (m = m' /\ d < d'))).

(* the days from 1 March of the year 0 to 1 March of the year y; the year from 1 March y holds the leap day of y + 1 *)
Definition year_start (y : Z) : Z := 365 * y + y / 4 - y / 100 + y / 400.
Definition year_len (y : Z) : Z := if is_leap (y + 1) then 366 else 365.

Lemma year_start_succ y : year_start (y + 1) = year_start y + year_len y.
Proof.
  unfold year_start, year_len, is_leap.
  destruct (Z.eqb_spec ((y + 1) mod 4) 0), (Z.eqb_spec ((y + 1) mod 100) 0), (Z.eqb_spec ((y + 1) mod 400) 0);
    cbn [andb orb negb]; Z.div_mod_to_equations; lia.
Qed.

Lemma year_start_mono a b : a <= b -> year_start a <= year_start b.
Proof. intros H. unfold year_start. Z.div_mod_to_equations. lia. Qed.

Lemma year_start_era y era : year_start (y + era * 400) = year_start y + era * 146097.
Proof. unfold year_start. Z.div_mod_to_equations. lia. Qed.

(* A year has 365 days, so doe / 365 runs ahead by one day for every leap day before doe: one every 1460 days, none at
   the end of each century of 36524 days, except the last day of the era. *)
Definition yoe_of (doe : Z) : Z := (doe - doe / 1460 + doe / 36524 - doe / 146096) / 365.

(* every divisor is a constant: the claim is linear integer arithmetic (each bound by itself, with the quotients it mentions) *)
Lemma yoe_bracket doe : 0 <= doe < 146097 ->
  0 <= yoe_of doe < 400 /\ year_start (yoe_of doe) <= doe < year_start (yoe_of doe + 1).
Proof. intros H. unfold yoe_of, year_start. split; [|split]; Z.div_mod_to_equations; lia. Qed.

Definition month_of (mp : Z) : Z := if mp <? 10 then mp + 3 else mp - 9.
(* doy = 0 is 1 March *)
Definition march_date (y doy : Z) : Z * Z * Z :=
  let mp := (5 * doy + 2) / 153 in
  let d := doy - (153 * mp + 2) / 5 + 1 in
  let m := month_of mp in
  (if m <=? 2 then y + 1 else y, m, d).

Lemma cfd_march z :
  let z' := z + 719468 in let era := z' / 146097 in let doe := z' - era * 146097 in let yoe := yoe_of doe in
  civil_from_days z = march_date (yoe + era * 400) (doe - (365 * yoe + yoe / 4 - yoe / 100)).
Proof. cbv beta zeta delta [civil_from_days march_date yoe_of month_of]. reflexivity. Qed.

Lemma month_index doy : 0 <= doy <= 365 -> 0 <= (5 * doy + 2) / 153 <= 11.
Proof. intros H. Z.div_mod_to_equations. lia. Qed.

Lemma month_of_cases mp : 0 <= mp <= 11 ->
  (mp < 10 /\ month_of mp = mp + 3 /\ (month_of mp <=? 2) = false) \/
  (10 <= mp /\ month_of mp = mp - 9 /\ (month_of mp <=? 2) = true).
Proof. intros H. unfold month_of. destruct (Z.ltb_spec mp 10); [left | right]; lia. Qed.

Lemma dfc_march y doy : 0 <= doy <= 365 ->
  let '(y', m, d) := march_date y doy in days_from_civil y' m d = year_start y + doy - 719468.
Proof.
  intros H. unfold march_date, days_from_civil, year_start.
  pose proof (month_index doy H) as Hmp. set (mp := (5 * doy + 2) / 153) in *.
  assert (E : (if month_of mp <=? 2 then (if month_of mp <=? 2 then y + 1 else y) - 1
               else if month_of mp <=? 2 then y + 1 else y) = y /\ (month_of mp + 9) mod 12 = mp).
  { destruct (month_of_cases mp Hmp) as [(L & -> & ->) | (L & -> & ->)]; (split; [lia | Z.div_mod_to_equations; lia]). }
  destruct E as [-> ->]. Z.div_mod_to_equations. lia.
Qed.

(* 153 * mp / 5 spreads the 30 and 31 days of March .. January *)
Lemma month_len_table y mp : 0 <= mp < 11 -> (153 * (mp + 1) + 2) / 5 - (153 * mp + 2) / 5 = days_in_month y (month_of mp).
Proof.
  intros H.
  assert (C : mp = 0 \/ mp = 1 \/ mp = 2 \/ mp = 3 \/ mp = 4 \/ mp = 5 \/ mp = 6 \/ mp = 7 \/ mp = 8 \/ mp = 9 \/ mp = 10) by lia.
  destruct C as [->|[->|[->|[->|[->|[->|[->|[->|[->|[->| ->]]]]]]]]]]; reflexivity.
Qed.

Lemma march_date_valid y doy : 0 <= doy < year_len y ->
  let '(y', m, d) := march_date y doy in 1 <= m <= 12 /\ 1 <= d <= days_in_month y' m.
Proof.
  intros H. assert (H' : 0 <= doy <= 365) by (unfold year_len in H; destruct (is_leap (y + 1)); lia).
  unfold march_date. pose proof (month_index doy H') as Hmp. set (mp := (5 * doy + 2) / 153) in *.
  assert (D : 1 <= doy - (153 * mp + 2) / 5 + 1 <= (153 * (mp + 1) + 2) / 5 - (153 * mp + 2) / 5)
    by (subst mp; Z.div_mod_to_equations; lia).
  split; [destruct (month_of_cases mp Hmp) as [(L & -> & _) | (L & -> & _)]; lia|].
  destruct (Z.eq_dec mp 11) as [E|N].
  - (* February is what is left of the year *)
    rewrite E in *. change (month_of 11) with 2. change (2 <=? 2) with true. cbv iota.
    change (days_in_month (y + 1) 2) with (if is_leap (y + 1) then 29 else 28).
    change ((153 * 11 + 2) / 5) with 337 in *. unfold year_len in H. destruct (is_leap (y + 1)); lia.
  - rewrite <- (month_len_table _ mp) by lia. exact D.
Qed.

Lemma march_date_mono y doy y' doy' : 0 <= doy <= 365 -> 0 <= doy' <= 365 -> y < y' \/ (y = y' /\ doy < doy') ->
  lex3 (march_date y doy) (march_date y' doy').
Proof.
  intros H H' L. unfold march_date, lex3.
  pose proof (month_index doy H) as Hmp. pose proof (month_index doy' H') as Hmp'.
  assert (M : y = y' -> (5 * doy + 2) / 153 <= (5 * doy' + 2) / 153) by (intros E; apply Z.div_le_mono; lia).
  set (mp := (5 * doy + 2) / 153) in *. set (mp' := (5 * doy' + 2) / 153) in *.
  assert (S : mp = mp' -> (153 * mp + 2) / 5 = (153 * mp' + 2) / 5) by (intros ->; reflexivity).
  destruct (month_of_cases mp Hmp) as [(C & -> & ->) | (C & -> & ->)],
           (month_of_cases mp' Hmp') as [(C' & -> & ->) | (C' & -> & ->)]; lia.
Qed.

Theorem civil_from_days_march z : exists y doy,
  z + 719468 = year_start y + doy /\ 0 <= doy < year_len y /\ civil_from_days z = march_date y doy.
Proof.
  rewrite cfd_march. cbv zeta.
  set (era := (z + 719468) / 146097). set (doe := z + 719468 - era * 146097).
  assert (Hd : 0 <= doe < 146097) by (subst doe era; Z.div_mod_to_equations; lia).
  destruct (yoe_bracket doe Hd) as [Hy Hb]. set (yoe := yoe_of doe) in *.
  assert (E : 365 * yoe + yoe / 4 - yoe / 100 = year_start yoe) by (unfold year_start; rewrite (Z.div_small yoe 400); lia).
  exists (yoe + era * 400), (doe - year_start yoe). rewrite E.
  pose proof (year_start_succ (yoe + era * 400)) as S.
  replace (yoe + era * 400 + 1) with (yoe + 1 + era * 400) in S at 1 by ring. rewrite !year_start_era in *.
  split; [lia | split; [lia | reflexivity]].
Qed.

Theorem civil_from_days_valid z : let '(y, m, d) := civil_from_days z in 1 <= m <= 12 /\ 1 <= d <= days_in_month y m.
Proof. destruct (civil_from_days_march z) as (y & doy & _ & H & ->). apply march_date_valid, H. Qed.

Lemma days_in_month_le y m : days_in_month y m <= 31.
Proof. unfold days_in_month. destruct (m =? 2), (is_leap y), ((m =? 4) || (m =? 6) || (m =? 9) || (m =? 11)); lia. Qed.

Theorem civil_from_days_mono z z' : z < z' -> lex3 (civil_from_days z) (civil_from_days z').
Proof.
  intros H. destruct (civil_from_days_march z) as (y & doy & E & B & ->), (civil_from_days_march z') as (y' & doy' & E' & B' & ->).
  pose proof (year_start_succ y') as S. unfold year_len in *.
  apply march_date_mono; [destruct (is_leap (y + 1)); lia | destruct (is_leap (y' + 1)); lia |].
  destruct (Z_lt_ge_dec y' y) as [L|G]; [pose proof (year_start_mono (y' + 1) y ltac:(lia)); lia|].
  destruct (Z.eq_dec y y') as [->|]; [right | left]; lia.
Qed.
