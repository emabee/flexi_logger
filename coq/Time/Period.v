(* Days <-> civil date round trip for all Z (from CivilFacts), instants <-> broken-down time; the age criterion compares
   broken-down local times field by field: that is the comparison of clock periods (same_period_spec). *)
Require Import FL.Time.Civil FL.Time.CivilFacts.
From Coq Require Import ZArith Bool Lia.
Open Scope Z_scope.

Inductive age := ADay | AHour | AMinute | ASecond.

(* the comparison made by the code (RollState::age_rotation_necessary), on broken-down times *)
Definition same_period (a : age) (x y : civil) : bool :=
  let d := (cy x =? cy y) && (cmo x =? cmo y) && (cd x =? cd y) in
  match a with
  | ADay => d
  | AHour => d && (ch x =? ch y)
  | AMinute => d && (ch x =? ch y) && (cmi x =? cmi y)
  | ASecond => d && (ch x =? ch y) && (cmi x =? cmi y) && (cs x =? cs y)
  end.

(* the number of the day / hour / minute / second an instant (seconds since the epoch, local) lies in *)
Definition period_of (a : age) (t : Z) : Z :=
  match a with ADay => t / 86400 | AHour => t / 3600 | AMinute => t / 60 | ASecond => t end.

(* ---------- era shift ---------- *)
Lemma civil_from_days_shift : forall z k,
  civil_from_days (z + 146097 * k) = let '(y, m, d) := civil_from_days z in (y + 400 * k, m, d).
Proof.
  intros z k. unfold civil_from_days.
  replace (z + 146097 * k + 719468) with (z + 719468 + k * 146097) by ring.
  rewrite Z.div_add by lia.
  set (e := (z + 719468) / 146097).
  replace (z + 719468 + k * 146097 - (e + k) * 146097) with (z + 719468 - e * 146097) by ring.
  set (doe := z + 719468 - e * 146097).
  set (yoe := (doe - doe / 1460 + doe / 36524 - doe / 146096) / 365).
  set (doy := doe - (365 * yoe + yoe / 4 - yoe / 100)).
  set (mp := (5 * doy + 2) / 153).
  set (m := if mp <? 10 then mp + 3 else mp - 9).
  destruct (m <=? 2); f_equal; f_equal; ring.
Qed.

Lemma days_from_civil_shift : forall y m d k,
  days_from_civil (y + 400 * k) m d = days_from_civil y m d + 146097 * k.
Proof.
  intros y m d k. unfold days_from_civil.
  set (y' := if m <=? 2 then y - 1 else y).
  replace (if m <=? 2 then y + 400 * k - 1 else y + 400 * k) with (y' + k * 400)
    by (unfold y'; destruct (m <=? 2); ring).
  rewrite Z.div_add by lia.
  set (e := y' / 400).
  replace (y' + k * 400 - (e + k) * 400) with (y' - e * 400) by ring.
  set (yoe := y' - e * 400).
  ring.
Qed.

(* civil_from_days has days_from_civil as left inverse (and yields valid dates: CivilFacts.civil_from_days_valid) *)
Theorem days_civil_roundtrip : forall z, let '(y, m, d) := civil_from_days z in days_from_civil y m d = z.
Proof.
  intros z. destruct (civil_from_days_march z) as (y & doy & E & B & ->).
  assert (H : 0 <= doy <= 365) by (unfold year_len in B; destruct (is_leap (y + 1)); lia).
  pose proof (dfc_march y doy H) as R. destruct (march_date y doy) as [[y' m] d]. lia.
Qed.
Print Assumptions days_civil_roundtrip.

Theorem civil_from_days_inj : forall a b, civil_from_days a = civil_from_days b -> a = b.
Proof.
  intros a b H.
  pose proof (days_civil_roundtrip a) as Ha. pose proof (days_civil_roundtrip b) as Hb.
  rewrite H in Ha. destruct (civil_from_days b) as [[y m] d]. congruence.
Qed.
Print Assumptions civil_from_days_inj.

(* ---------- div/mod arithmetic on instants ---------- *)
Lemma hour_split : forall t, t / 3600 = t / 86400 * 24 + (t mod 86400) / 3600 /\ 0 <= (t mod 86400) / 3600 < 24.
Proof. intros t. Z.div_mod_to_equations. lia. Qed.

Lemma minute_split : forall t,
  t / 60 = t / 3600 * 60 + ((t mod 86400) mod 3600) / 60 /\ 0 <= ((t mod 86400) mod 3600) / 60 < 60.
Proof. intros t. Z.div_mod_to_equations. lia. Qed.

Lemma second_split : forall t, t = t / 60 * 60 + (t mod 86400) mod 60 /\ 0 <= (t mod 86400) mod 60 < 60.
Proof. intros t. Z.div_mod_to_equations. lia. Qed.

Lemma eqb_split : forall n q1 r1 q2 r2, 0 <= r1 < n -> 0 <= r2 < n ->
  (q1 * n + r1 =? q2 * n + r2) = (q1 =? q2) && (r1 =? r2).
Proof.
  intros n q1 r1 q2 r2 H1 H2. apply eq_true_iff_eq.
  rewrite andb_true_iff, !Z.eqb_eq. split; [intros H | intros [-> ->]; reflexivity].
  assert (E : (q1 * n + r1) / n = (q2 * n + r2) / n) by (rewrite H; reflexivity).
  rewrite !Z.div_add_l, !(Z.div_small _ n) in E by lia.
  assert (q1 = q2) by lia. subst q2. split; [reflexivity | lia].
Qed.

Lemma civil_of_date : forall t, civil_from_days (t / 86400) = (cy (civil_of t), cmo (civil_of t), cd (civil_of t)).
Proof. intros t. unfold civil_of. destruct (civil_from_days (t / 86400)) as [[y m] d]. reflexivity. Qed.

Lemma same_day_eqb : forall x y,
  (let cx := civil_of x in let cy' := civil_of y in
   (cy cx =? cy cy') && (cmo cx =? cmo cy') && (cd cx =? cd cy')) = (x / 86400 =? y / 86400).
Proof.
  intros x y. cbv zeta. generalize (civil_of_date x) (civil_of_date y). generalize (civil_of x) (civil_of y).
  intros cx cy' Ex Ey. apply eq_true_iff_eq. rewrite !andb_true_iff, !Z.eqb_eq. split.
  - intros [[E1 E2] E3]. apply civil_from_days_inj. rewrite Ex, Ey, E1, E2, E3. reflexivity.
  - intros H. rewrite H, Ey in Ex. injection Ex as -> -> ->. auto.
Qed.

Lemma civil_of_fields : forall t,
  ch (civil_of t) = (t mod 86400) / 3600 /\
  cmi (civil_of t) = ((t mod 86400) mod 3600) / 60 /\
  cs (civil_of t) = (t mod 86400) mod 60.
Proof.
  intros t. unfold civil_of. destruct (civil_from_days (t / 86400)) as [[y m] d]. cbn [ch cmi cs]. auto.
Qed.

Lemma civil_of_hms : forall t,
  0 <= ch (civil_of t) <= 23 /\ 0 <= cmi (civil_of t) <= 59 /\ 0 <= cs (civil_of t) <= 59 /\
  t mod 86400 = ch (civil_of t) * 3600 + cmi (civil_of t) * 60 + cs (civil_of t).
Proof. intros t. destruct (civil_of_fields t) as (-> & -> & ->). Z.div_mod_to_equations. lia. Qed.

Theorem same_period_spec : forall a x y, same_period a (civil_of x) (civil_of y) = (period_of a x =? period_of a y).
Proof.
  intros a x y.
  pose proof (same_day_eqb x y) as Hd. cbv zeta in Hd.
  destruct (civil_of_fields x) as (Hhx & Hmx & Hsx).
  destruct (civil_of_fields y) as (Hhy & Hmy & Hsy).
  destruct (hour_split x) as [Hx1 Hx1b]. destruct (hour_split y) as [Hy1 Hy1b].
  destruct (minute_split x) as [Hx2 Hx2b]. destruct (minute_split y) as [Hy2 Hy2b].
  destruct (second_split x) as [Hx3 Hx3b]. destruct (second_split y) as [Hy3 Hy3b].
  assert (HH : (x / 86400 =? y / 86400) && (ch (civil_of x) =? ch (civil_of y)) = (x / 3600 =? y / 3600)).
  { rewrite Hhx, Hhy, Hx1, Hy1. symmetry. apply eqb_split; assumption. }
  assert (HM : (x / 3600 =? y / 3600) && (cmi (civil_of x) =? cmi (civil_of y)) = (x / 60 =? y / 60)).
  { rewrite Hmx, Hmy, Hx2, Hy2. symmetry. apply eqb_split; assumption. }
  assert (HS : (x / 60 =? y / 60) && (cs (civil_of x) =? cs (civil_of y)) = (x =? y)).
  { rewrite Hsx, Hsy. rewrite Hx3 at 3. rewrite Hy3 at 3. symmetry. apply eqb_split; assumption. }
  destruct a; unfold same_period, period_of; rewrite Hd.
  - reflexivity.
  - exact HH.
  - rewrite HH. exact HM.
  - rewrite HH, HM. exact HS.
Qed.
Print Assumptions same_period_spec.

Theorem secs_civil_roundtrip : forall t, secs_of_civil (civil_of t) = t.
Proof.
  intros t. unfold secs_of_civil.
  pose proof (days_civil_roundtrip (t / 86400)) as D. rewrite civil_of_date in D. rewrite D.
  destruct (civil_of_hms t) as (_ & _ & _ & E). Z.div_mod_to_equations. lia.
Qed.
Print Assumptions secs_civil_roundtrip.

Lemma civil_of_inj : forall t1 t2, civil_of t1 = civil_of t2 -> t1 = t2.
Proof. intros t1 t2 E. rewrite <- (secs_civil_roundtrip t1), <- (secs_civil_roundtrip t2), E. reflexivity. Qed.
