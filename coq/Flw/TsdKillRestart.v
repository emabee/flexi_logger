(* TimestampsDirect naming: a new writer on the directory that a KILLED writer left behind (TsdKill.v).  The directory of the
   dead process is one that a stopped writer could have left (IdleTd: the files are named by keys with keys_ok, the newest file
   possibly empty), so the restart is the one of TsdRestart.v (one_run_td: without append the next free name of the present second
   - a restart counter when the clock still shows the second of the killed writer's last file -, with append the newest file is
   continued).  What is added here: every operation of the new writer succeeds (obs_ok), and the two runs are put together. *)
Require Import FL.Base.Bytes FL.Base.BytesFacts FL.Base.PathName FL.Fs.Fs FL.Fs.FsFacts FL.Time.TsFormat
  FL.Names.FileSpec FL.Names.SortFacts FL.Names.FamilyFacts FL.Flw.Model FL.Flw.ModelFacts FL.Flw.NumInv
  FL.Flw.Run FL.Flw.NumRun FL.Flw.NumListing FL.Flw.NumTheorems FL.Flw.NumRestart
  FL.Flw.KillFacts FL.Flw.NumKill FL.Flw.NumKillRestart
  FL.Flw.TsTime FL.Flw.TsNames FL.Flw.TsInv FL.Flw.TsRun FL.Flw.TsTheorems FL.Flw.TsRestart
  FL.Flw.TsdInv FL.Flw.TsdRun FL.Flw.TsdTheorems FL.Flw.TsdRestartInv FL.Flw.TsdRestart FL.Flw.KillEnv FL.Flw.TsdKill.
From Coq Require Import ZifyN ZifyNat ZifyBool.
Import String.StringSyntax.
Open Scope nat_scope.

(* ------------------------------------------------------------------ every operation of a run on a directory left behind succeeds *)
Lemma gstep_ok_td c crit e off lo hi n x d0 a o :
  tsdcfg c crit -> tag_ok c -> years_ok e lo hi -> aok c -> GRelTd c e off lo n x d0 a -> basic_op o -> tick_ok o ->
  (wnow (s_w x) <= hi)%Z -> (N.of_nat (S n) <= usize_max)%N -> obs_ok (snd (step x o)).
Proof.
  intros Hcfg T Y Hao G Hb Htk Hhi Hmax. destruct a as [[[keys closed] cur]|].
  - cbn [GRelTd] in G. destruct G as [E0 [wr [roll [Es [I [V [Hn Z]]]]]]]. pose proof E0 as [Ht _].
    pose proof (td_len _ _ _ _ _ _ _ I) as Hlen.
    assert (Hk : (N.of_nat (length keys) <= usize_max)%N) by lia.
    rewrite (step_sync_tsd c crit x _ o Hcfg Es eq_refl).
    set (s := st_tsd c e (nth (length closed) keys kd) roll wr) in *.
    assert (Hp : f_poisoned s = false) by reflexivity.
    destruct o; try contradiction; cbn [sync_step].
    + rewrite Es, Hp, Ht. cbn [app]. rewrite <- V in Z.
      destruct (write_active_tsd_k c crit e lo hi (s_w x) wr keys closed roll b Hcfg T Y I Hhi Hk Z)
        as [w' [wr' [roll' [keys' [closed' [E _]]]]]].
      fold s in E. rewrite E. reflexivity.
    + rewrite Es, Hp. rewrite <- V in Z.
      destruct (write_active_tsd_k c crit e lo hi (s_w x) wr keys closed roll b Hcfg T Y I Hhi Hk Z)
        as [w' [wr' [roll' [keys' [closed' [E _]]]]]].
      fold s in E. rewrite E. reflexivity.
    + rewrite Es, Hp.
      destruct (flush_active_tsd c e lo (s_w x) wr keys closed roll (nth (length closed) keys kd) I) as [w' [wr' [E _]]].
      fold s in E. rewrite E. reflexivity.
    + rewrite Es, Hp. unfold s. cbn [st_tsd f_cfg f_inner].
      destruct (mount_next_rotates_tsd c crit e lo hi (s_w x) wr keys closed roll true Hcfg T Y I Hhi Hk eq_refl)
        as [w' [wr' [roll' [E _]]]].
      rewrite E. reflexivity.
    + reflexivity.
    + cbn [snd snapshot obs_ok]. exact Logic.I.
  - cbn [GRelTd] in G. pose proof G as [[Ht _] [Es _]].
    rewrite (step_sync_tsd c crit x _ o Hcfg Es eq_refl).
    destruct o; try contradiction; cbn [sync_step].
    + destruct (first_write_td c crit e off lo hi n x d0 (s_tl x ++ b) Hcfg T Y Hao G Hhi Hmax) as [w' [s' [rot [D' [E _]]]]].
      rewrite Es. cbn [new_flw f_poisoned]. fold (new_flw c). rewrite E. reflexivity.
    + destruct (first_write_td c crit e off lo hi n x d0 b Hcfg T Y Hao G Hhi Hmax) as [w' [s' [rot [D' [E _]]]]].
      rewrite Es. cbn [new_flw f_poisoned]. fold (new_flw c). rewrite E. reflexivity.
    + rewrite Es. reflexivity.
    + rewrite Es. reflexivity.
    + reflexivity.
    + cbn [snd snapshot obs_ok]. exact Logic.I.
Qed.

Lemma grun_ok_td c crit e off lo hi d0 : tsdcfg c crit -> tag_ok c -> years_ok e lo hi -> aok c ->
  forall ops x a n, GRelTd c e off lo n x d0 a -> Forall basic_op ops -> Forall tick_ok ops ->
  (wnow (s_w x) + elapsed ops <= hi)%Z -> (N.of_nat (n + length ops) <= usize_max)%N ->
  Forall obs_ok (snd (run x ops)).
Proof.
  intros Hcfg T Y Hao. induction ops as [|o r IH]; intros x a n G Hb Htk Hhi Hmax; [constructor|].
  cbn [run]. inversion Hb as [|o' r' Ho Hr]; subst. inversion Htk as [|o' r' Hto Htr]; subst.
  cbn [elapsed length] in *. pose proof (elapsed_nonneg r Htr) as Er.
  assert (Hdt : (0 <= dt_of o)%Z) by (destruct o; cbn [dt_of tick_ok] in *; lia).
  destruct (gstep_td c crit e off lo hi n x d0 a o Hcfg T Y Hao G Ho Hto ltac:(lia) ltac:(lia)) as [a1 [G1 [_ [_ [W1 _]]]]].
  pose proof (gstep_ok_td c crit e off lo hi n x d0 a o Hcfg T Y Hao G Ho Hto ltac:(lia) ltac:(lia)) as K.
  destruct (step x o) as [x1 ob]. cbn [fst snd] in *.
  specialize (IH x1 a1 (S n) G1 Hr Htr ltac:(lia) ltac:(lia)). destruct (run x1 r) as [x2 obs].
  cbn [snd] in *. constructor; assumption.
Qed.

Lemma stop_ok_td c crit e off lo n x d0 a : tsdcfg c crit -> GRelTd c e off lo n x d0 a -> obs_ok (snd (step x OStop)).
Proof.
  intros Hcfg G.
  assert (E : exists s, s_flw x = Some s /\ f_cfg s = c).
  { destruct a as [[[keys closed] cur]|]; cbn [GRelTd] in G.
    - destruct G as [_ [wr [roll [Es _]]]]. rewrite Es. eexists. split; reflexivity.
    - destruct G as [_ [Es _]]. rewrite Es. eexists. split; reflexivity. }
  destruct E as [s [Es Ec]]. rewrite (step_sync_tsd c crit x s OStop Hcfg Es Ec). cbn [sync_step]. rewrite Es. reflexivity.
Qed.

Lemma idle_tick_td_ok c e off lo n x d dt : (0 <= dt)%Z -> IdleTd c e off lo n x d ->
  IdleTd c e off lo n (fst (step x (OTick dt))) d /\ wnow (s_w (fst (step x (OTick dt)))) = (wnow (s_w x) + dt)%Z
  /\ obs_ok (snd (step x (OTick dt))).
Proof.
  intros Hdt Id. destruct (idle_tick_td c e off lo n x d dt Hdt Id) as [Id0 W0]. split; [exact Id0|]. split; [exact W0|].
  destruct Id as [_ [Es _]]. rewrite (step_sync_none x _ Es). reflexivity.
Qed.

(* one whole run OStart c :: ops ++ [OStop] on a directory left behind: every observation is a normal result, and what
   TsdRestart.one_run_td says about the directory (here without the clock tick in front) *)
Lemma start_run_td c crit e off lo hi n x d ops :
  tsdcfg c crit -> tag_ok c -> years_ok e lo hi -> aok c -> IdleTd c e off lo n x d ->
  Forall basic_op ops -> Forall tick_ok ops ->
  (wnow (s_w x) + elapsed ops <= hi)%Z -> (N.of_nat (S n + length ops) <= usize_max)%N ->
  Forall obs_ok (snd (run x (OStart c :: ops ++ [OStop])))
  /\ exists d', IdleTd c e off lo (S n + length ops) (fst (run x (OStart c :: ops ++ [OStop]))) d'
       /\ ExtD d d' /\ flatD d' = flatD d ++ written ops
       /\ wnow (s_w (fst (run x (OStart c :: ops ++ [OStop])))) = (wnow (s_w x) + elapsed ops)%Z
       /\ (c_append c = false -> KeepD d d').
Proof.
  intros Hcfg T Y Hao Id Hb Htk Hhi Hmax.
  pose proof (elapsed_nonneg ops Htk) as Eo.
  cbn [run].
  pose proof (start_td c e off lo n x d Id) as P0. pose proof (start_now x c) as W1.
  assert (K0 : obs_ok (snd (step x (OStart c)))).
  { destruct Id as [_ [Es _]]. rewrite (step_sync_none x _ Es). reflexivity. }
  destruct (step x (OStart c)) as [x0 ob0]. cbn [fst snd] in P0, W1, K0.
  assert (G0 : GRelTd c e off lo (S n) x0 d None) by exact P0.
  destruct (grun_td c crit e off lo hi d Hcfg T Y Hao ops x0 None (S n) G0 Hb Htk ltac:(lia) ltac:(lia)) as [a1 [G1 [X1 [F1 [W2 N1]]]]].
  pose proof (grun_ok_td c crit e off lo hi d Hcfg T Y Hao ops x0 None (S n) G0 Hb Htk ltac:(lia) ltac:(lia)) as K1.
  rewrite run_app. destruct (run x0 ops) as [x1 obs1]. cbn [fst snd] in G1, K1, W2.
  pose proof (stop_ok_td c crit e off lo _ x1 d a1 Hcfg G1) as K2.
  destruct (stop_td c crit e off lo (S n + length ops) x1 d a1 Hcfg G1) as [Id2 W3].
  cbn [run]. destruct (step x1 OStop) as [x2 ob2]. cbn [fst snd] in *.
  split. { constructor; [exact K0|]. apply Forall_app. split; [exact K1 | constructor; [exact K2 | constructor]]. }
  exists (gviewD d a1). cbn [gviewD] in X1, F1.
  split; [exact Id2|]. split; [exact X1|]. split; [exact F1|]. split; [lia|].
  intros Hna. specialize (N1 Hna Logic.I). destruct a1 as [D1|]; [right; exact N1 | left; reflexivity].
Qed.

(* one whole run, after the clock has advanced by dt: every observation is a normal result *)
Lemma one_run_ok_td c crit e off lo hi n x d dt ops :
  tsdcfg c crit -> tag_ok c -> years_ok e lo hi -> aok c -> IdleTd c e off lo n x d -> (0 <= dt)%Z ->
  Forall basic_op ops -> Forall tick_ok ops ->
  (wnow (s_w x) + elapsed (run_t dt c ops) <= hi)%Z -> (N.of_nat (n + length (run_t dt c ops)) <= usize_max)%N ->
  Forall obs_ok (snd (run x (run_t dt c ops))).
Proof.
  intros Hcfg T Y Hao Id Hdt Hb Htk Hhi Hmax. unfold run_t in *.
  cbn [elapsed dt_of length] in Hhi, Hmax. rewrite elapsed_app in Hhi. rewrite app_length in Hmax. cbn [elapsed dt_of length] in Hhi, Hmax.
  change (run x (OTick dt :: OStart c :: ops ++ [OStop]))
    with (let '(x1, ob) := step x (OTick dt) in let '(x2, obs) := run x1 (OStart c :: ops ++ [OStop]) in (x2, ob :: obs)).
  destruct (idle_tick_td_ok c e off lo n x d dt Hdt Id) as [Id0 [W0 Ka]].
  destruct (step x (OTick dt)) as [xa oba]. cbn [fst snd] in Id0, W0, Ka.
  destruct (start_run_td c crit e off lo hi n xa d ops Hcfg T Y Hao Id0 Hb Htk ltac:(lia) ltac:(lia)) as [K _].
  destruct (run xa (OStart c :: ops ++ [OStop])) as [x3 obs3]. cbn [snd] in *. constructor; [exact Ka | exact K].
Qed.

Lemma ts_e_utc c c' off : c_utc c' = c_utc c -> ts_e c' off = ts_e c off.
Proof. intros E. unfold ts_e. rewrite E. reflexivity. Qed.

(* the directories before and after the restart, in the terms of TsdRestart.v *)

Lemma kill_restart_td c crit c' crit' t0 off ops1 k ops2 tick ops3 :
  tsdcfg c crit -> tag_ok c -> c_cap c = None ->
  tsdcfg c' crit' -> c_spec c' = c_spec c -> c_utc c' = c_utc c -> (c_append c' = true -> probe_ok c') ->
  Forall basic_op ops1 -> Forall basic_op ops2 -> Forall basic_op ops3 ->
  Forall tick_ok ops1 -> Forall tick_ok ops2 -> Forall tick_ok ops3 -> (0 <= tick_dt tick)%Z ->
  let e := ts_e c off in
  let hi := (t0 + elapsed ops1 + elapsed ops2 + tick_dt tick + elapsed ops3)%Z in
  (0 <= t0 + e)%Z -> (hi + e < sec_max)%Z ->
  (N.of_nat (length ops1 + length ops2 + length ops3 + 1) <= usize_max)%N ->
  let x1 := fst (run (sys0 t0 off) (OStart c :: ops1 ++ [OSetKill k])) in
  let xk := fst (run (sys0 t0 off) (OStart c :: ops1 ++ [OSetKill k] ++ ops2 ++ [OCrash])) in
  let r2 := run xk (restart_ops tick c' ops3) in
  Forall obs_ok (snd r2)
  /\ exists n d d',
       IdleTd c e off t0 n xk d /\ flatD d = written ops1 ++ acked x1 ops2
       /\ IdleTd c' e off t0 (S n + length ops3) (fst r2) d' /\ flatD d' = written ops1 ++ acked x1 ops2 ++ written ops3
       /\ wnow (s_w (fst r2)) = hi
       /\ ExtD d d' /\ (c_append c' = false -> KeepD d d').
Proof.
  intros Hcfg T Hcap Hcfg' Hsp Hutc Hpr Hb1 Hb2 Hb3 Htk1 Htk2 Htk3 Hdt e hi Hlo Hhi Hmax x1 xk r2.
  pose proof (elapsed_nonneg ops1 Htk1) as E1. pose proof (elapsed_nonneg ops2 Htk2) as E2. pose proof (elapsed_nonneg ops3 Htk3) as E3.
  destruct (kill_history_td c crit t0 off ops1 k ops2 Hcfg Hcap T Hb1 Hb2 Htk1 Htk2 Hlo ltac:(fold e; unfold hi in Hhi; lia) ltac:(lia))
    as [[d [Id [F [W _]]]] _].
  fold xk in Id, W. fold x1 in F. fold e in Id.
  assert (Y : years_ok e t0 hi) by (split; assumption).
  pose proof (tag_ok_spec c c' Hsp T) as T'.
  assert (Id' : IdleTd c' e off t0 (length ops1 + length ops2) xk d) by (apply (idleTd_spec c c'); [congruence | congruence | exact Id]).
  set (n := length ops1 + length ops2) in *.
  (* the clock tick between the crash and the restart *)
  destruct (tick_between (fun y => IdleTd c' e off t0 n y d) xk tick Hdt Id' (fun dt H => idle_tick_td_ok c' e off t0 n xk d dt H Id'))
    as [Ka [Ida Wa]].
  unfold r2, restart_ops. rewrite run_app.
  destruct (run xk (match tick with Some dt => [OTick dt] | None => [] end)) as [xa' obsa]. cbn [fst snd] in *.
  destruct (start_run_td c' crit' e off t0 hi n xa' d ops3 Hcfg' T' Y Hpr Ida Hb3 Htk3 ltac:(rewrite Wa, W; unfold hi; lia) ltac:(unfold n; lia))
    as [K3 [d' [Id2 [X [F2 [W2 Kp]]]]]].
  destruct (run xa' (OStart c' :: ops3 ++ [OStop])) as [x3 obs3]. cbn [fst snd] in *.
  split; [apply Forall_app; split; assumption|].
  exists n, d, d'. split; [exact Id|]. split; [exact F|]. split; [exact Id2|].
  split; [rewrite F2, F, <- app_assoc; reflexivity|]. split; [rewrite W2, Wa, W; unfold hi; lia|]. split; [exact X | exact Kp].
Qed.

(* The killed writer: TimestampsDirect naming, direct mode (TsdKill.v), any history, any kill point.  After the crash the clock
   advances by dt >= 0 (dt = 0: the new writer starts in the very second in which the process was killed), then a new writer
   with the same file spec and the same choice of use_utc - its own criterion, buffer capacity and append flag; with append
   the infix must be found in the names (probe_ok, e.g. by probe_free_ok) - runs ops3 and is stopped.
   - Every operation of the new writer succeeds (Forall obs_ok: no error result, no panic).
   - The final directory consists exactly of the plain files named by keys, in the order of their creation; they hold exactly
     acknowledged ++ the new writer's records.
   - keys_ok keys: over BOTH runs the names are pairwise distinct and increasing in the order of creation - no name is used
     twice; a new file in the second of the killed writer's last file gets the next restart counter (tsdkr_same_second). *)
Theorem timestampsdirect_kill_restart c crit c' crit' t0 off ops1 k ops2 dt ops3 :
  tsdcfg c crit -> tag_ok c -> c_cap c = None ->
  tsdcfg c' crit' -> c_spec c' = c_spec c -> c_utc c' = c_utc c -> (c_append c' = true -> probe_ok c') ->
  Forall basic_op ops1 -> Forall basic_op ops2 -> Forall basic_op ops3 ->
  Forall tick_ok ops1 -> Forall tick_ok ops2 -> Forall tick_ok ops3 -> (0 <= dt)%Z ->
  let e := ts_e c off in
  (0 <= t0 + e)%Z -> (t0 + elapsed ops1 + elapsed ops2 + dt + elapsed ops3 + e < sec_max)%Z ->
  (N.of_nat (length ops1 + length ops2 + length ops3 + 1) <= usize_max)%N ->
  let x1 := fst (run (sys0 t0 off) (OStart c :: ops1 ++ [OSetKill k])) in
  let xk := fst (run (sys0 t0 off) (OStart c :: ops1 ++ [OSetKill k] ++ ops2 ++ [OCrash])) in
  let r2 := run xk (OTick dt :: OStart c' :: ops3 ++ [OStop]) in
  Forall obs_ok (snd r2)
  /\ exists keys files,
       tsd_view c' e (wfs (s_w (fst r2))) keys files
       /\ keys_ok keys
       /\ (forall key, In key keys -> (t0 <= fst key <= t0 + elapsed ops1 + elapsed ops2 + dt + elapsed ops3)%Z)
       /\ concat files = written ops1 ++ acked x1 ops2 ++ written ops3.
Proof.
  intros Hcfg T Hcap Hcfg' Hsp Hutc Hpr Hb1 Hb2 Hb3 Htk1 Htk2 Htk3 Hdt e Hlo Hhi Hmax x1 xk r2.
  destruct (kill_restart_td c crit c' crit' t0 off ops1 k ops2 (Some dt) ops3 Hcfg T Hcap Hcfg' Hsp Hutc Hpr Hb1 Hb2 Hb3 Htk1 Htk2 Htk3
              Hdt Hlo Hhi Hmax) as [K [n [d [d' [_ [_ [Id2 [F2 [W2 _]]]]]]]]].
  split; [exact K|]. cbn [tick_dt] in W2.
  destruct (idleTd_view (c_spec c') c' (ts_e c off) off t0 _ _ d' eq_refl Id2) as [V [C [Ko Rg]]].
  exists (keysD d'), (filesD d'). split; [exact (V c' eq_refl)|]. split; [exact Ko|].
  split; [|rewrite C; exact F2]. intros key Ik. specialize (Rg key Ik).
  change (restart_ops (Some dt) c' ops3) with (OTick dt :: OStart c' :: ops3 ++ [OStop]) in Rg, W2. rewrite W2 in Rg. exact Rg.
Qed.
Print Assumptions timestampsdirect_kill_restart.

(* the same without an operation between the crash and the restart (the form of the theorems for Numbers / NumbersDirect naming) *)
Theorem timestampsdirect_kill_restart_now c crit c' crit' t0 off ops1 k ops2 ops3 :
  tsdcfg c crit -> tag_ok c -> c_cap c = None ->
  tsdcfg c' crit' -> c_spec c' = c_spec c -> c_utc c' = c_utc c -> (c_append c' = true -> probe_ok c') ->
  Forall basic_op ops1 -> Forall basic_op ops2 -> Forall basic_op ops3 ->
  Forall tick_ok ops1 -> Forall tick_ok ops2 -> Forall tick_ok ops3 ->
  let e := ts_e c off in
  (0 <= t0 + e)%Z -> (t0 + elapsed ops1 + elapsed ops2 + elapsed ops3 + e < sec_max)%Z ->
  (N.of_nat (length ops1 + length ops2 + length ops3 + 1) <= usize_max)%N ->
  let x1 := fst (run (sys0 t0 off) (OStart c :: ops1 ++ [OSetKill k])) in
  let xk := fst (run (sys0 t0 off) (OStart c :: ops1 ++ [OSetKill k] ++ ops2 ++ [OCrash])) in
  let r2 := run xk (OStart c' :: ops3 ++ [OStop]) in
  Forall obs_ok (snd r2)
  /\ exists keys files,
       tsd_view c' e (wfs (s_w (fst r2))) keys files
       /\ keys_ok keys
       /\ concat files = written ops1 ++ acked x1 ops2 ++ written ops3.
Proof.
  intros Hcfg T Hcap Hcfg' Hsp Hutc Hpr Hb1 Hb2 Hb3 Htk1 Htk2 Htk3 e Hlo Hhi Hmax x1 xk r2.
  destruct (kill_restart_td c crit c' crit' t0 off ops1 k ops2 None ops3 Hcfg T Hcap Hcfg' Hsp Hutc Hpr Hb1 Hb2 Hb3 Htk1 Htk2 Htk3
              ltac:(cbn [tick_dt]; lia) Hlo ltac:(cbn [tick_dt]; fold e; lia) Hmax) as [K [n [d [d' [_ [_ [Id2 [F2 _]]]]]]]].
  split; [exact K|].
  destruct (idleTd_view (c_spec c') c' (ts_e c off) off t0 _ _ d' eq_refl Id2) as [V [C [Ko _]]].
  exists (keysD d'), (filesD d'). split; [exact (V c' eq_refl)|]. split; [exact Ko|]. rewrite C. exact F2.
Qed.
Print Assumptions timestampsdirect_kill_restart_now.

(* The new writer never changes a file of the killed one - except that with append it continues the NEWEST file - and never
   reuses a name: the directory after the crash shows (keys1, files1), the final one (keys2, files2).  Every file of before
   is there under its key; all but the last one have their content of before, the last one has at most been continued;
   further files follow.  Without append the last file (possibly the empty one that the kill left) is untouched too. *)
Theorem timestampsdirect_kill_restart_keep c crit c' crit' t0 off ops1 k ops2 dt ops3 :
  tsdcfg c crit -> tag_ok c -> c_cap c = None ->
  tsdcfg c' crit' -> c_spec c' = c_spec c -> c_utc c' = c_utc c -> (c_append c' = true -> probe_ok c') ->
  Forall basic_op ops1 -> Forall basic_op ops2 -> Forall basic_op ops3 ->
  Forall tick_ok ops1 -> Forall tick_ok ops2 -> Forall tick_ok ops3 -> (0 <= dt)%Z ->
  let e := ts_e c off in
  (0 <= t0 + e)%Z -> (t0 + elapsed ops1 + elapsed ops2 + dt + elapsed ops3 + e < sec_max)%Z ->
  (N.of_nat (length ops1 + length ops2 + length ops3 + 1) <= usize_max)%N ->
  let x1 := fst (run (sys0 t0 off) (OStart c :: ops1 ++ [OSetKill k])) in
  let xk := fst (run (sys0 t0 off) (OStart c :: ops1 ++ [OSetKill k] ++ ops2 ++ [OCrash])) in
  let x2 := fst (run xk (OTick dt :: OStart c' :: ops3 ++ [OStop])) in
  exists keys1 files1 keys2 files2,
    tsd_view c e (wfs (s_w xk)) keys1 files1 /\ concat files1 = written ops1 ++ acked x1 ops2
    /\ tsd_view c' e (wfs (s_w x2)) keys2 files2 /\ concat files2 = written ops1 ++ acked x1 ops2 ++ written ops3
    /\ keys_ok keys2
    /\ (files1 = []
        \/ exists closed cur t mk more,
             files1 = closed ++ [cur] /\ keys2 = keys1 ++ mk /\ files2 = closed ++ (cur ++ t) :: more)
    /\ (c_append c' = false -> exists mk more, keys2 = keys1 ++ mk /\ files2 = files1 ++ more).
Proof.
  intros Hcfg T Hcap Hcfg' Hsp Hutc Hpr Hb1 Hb2 Hb3 Htk1 Htk2 Htk3 Hdt e Hlo Hhi Hmax x1 xk x2.
  destruct (kill_restart_td c crit c' crit' t0 off ops1 k ops2 (Some dt) ops3 Hcfg T Hcap Hcfg' Hsp Hutc Hpr Hb1 Hb2 Hb3 Htk1 Htk2 Htk3
              Hdt Hlo Hhi Hmax) as [_ [n [d1 [d2 [Id1 [F1 [Id2 [F2 [_ [X2 K2]]]]]]]]]].
  destruct (idleTd_view (c_spec c) c (ts_e c off) off t0 _ _ d1 eq_refl Id1) as [V1 [C1 _]].
  destruct (idleTd_view (c_spec c') c' (ts_e c off) off t0 _ _ d2 eq_refl Id2) as [V2 [C2 [Ko2 _]]].
  exists (keysD d1), (filesD d1), (keysD d2), (filesD d2).
  split; [exact (V1 c eq_refl)|]. split; [rewrite C1; exact F1|]. split; [exact (V2 c' eq_refl)|]. split; [rewrite C2; exact F2|].
  split; [exact Ko2|]. split.
  - destruct d1 as [[[keys1 closed1] cur1]|]; [right | left; reflexivity].
    destruct d2 as [[[keys2 closed2] cur2]|]; [|destruct X2]. cbn [keysD filesD ExtD] in *.
    destruct X2 as [[-> [-> [t ->]]]|[t [mk [mc [-> ->]]]]].
    + exists closed1, cur1, t, [], []. rewrite app_nil_r. auto.
    + exists closed1, cur1, t, mk, (mc ++ [cur2]). rewrite <- app_assoc. auto.
  - intros Hna. destruct (K2 Hna) as [->|Hf]; [exists [], []; rewrite !app_nil_r; auto|].
    destruct d1 as [[[keys1 closed1] cur1]|]; [|exists (keysD d2), (filesD d2); auto].
    destruct d2 as [[[keys2 closed2] cur2]|]; [|destruct Hf]. cbn [keysD filesD FreshD] in *.
    destruct Hf as [mk [mc [-> ->]]]. exists mk, (mc ++ [cur2]). rewrite <- !app_assoc. auto.
Qed.
Print Assumptions timestampsdirect_kill_restart_keep.

(* ------------------------------------------------------------------ examples (non-vacuity) *)
Open Scope string_scope.
(* the killed writer of TsdKill.v (direct mode, size criterion 3) without a clock tick after the kill: the crash happens in the
   second 0 in which all its files were started *)
Definition tsdkr_ops2 : list op := [OTrigger; OWrite (bs "gh"); OSnap; OWrite (bs "ijkl"); OWrite (bs "m")].
Definition tsdkr_hist (k : nat) : list op := OStart (tsdk_cfg false) :: tsdk_ops1 ++ [OSetKill k] ++ tsdkr_ops2 ++ [OCrash].
(* the new writer: buffered, size criterion 100 *)
Definition tsdkr_cfg2 (app : bool) : config := tsd_cfg (ex_sp "log") app (CSize 100) (Some 8%nat) false.
Definition tsdkr_ops3 : list op := [OWrite (bs "xy"); OFlush; OTick 5; OTrigger; OWrite (bs "z")].

(* kill point 1: the trigger has created <00>.restart-0001, the write of "gh" was killed: the newest file is EMPTY.  The new writer
   starts in the same second 0.  With append it continues the empty file; without append it takes the NEXT restart counter
   (restart-0002) - the empty file stays, no name is used twice.  Kill point 0 (the creation itself was killed): with append
   "ef" is continued, without append restart-0001 is taken (it does not exist). *)
Example tsdkr_same_second :
  snap_of (fst (run (fst (run (sys0 0 0) (tsdkr_hist 1))) (OStart (tsdkr_cfg2 true) :: tsdkr_ops3 ++ [OStop])))
  = [ (bs "app_r1970-01-01_00-00-00.log", 0%N, bs "abcd"); (bs "app_r1970-01-01_00-00-00.restart-0000.log", 0%N, bs "ef");
      (bs "app_r1970-01-01_00-00-00.restart-0001.log", 0%N, bs "xy"); (bs "app_r1970-01-01_00-00-05.log", 0%N, bs "z") ]
  /\ snap_of (fst (run (fst (run (sys0 0 0) (tsdkr_hist 1))) (OStart (tsdkr_cfg2 false) :: tsdkr_ops3 ++ [OStop])))
  = [ (bs "app_r1970-01-01_00-00-00.log", 0%N, bs "abcd"); (bs "app_r1970-01-01_00-00-00.restart-0000.log", 0%N, bs "ef");
      (bs "app_r1970-01-01_00-00-00.restart-0001.log", 0%N, []); (bs "app_r1970-01-01_00-00-00.restart-0002.log", 0%N, bs "xy");
      (bs "app_r1970-01-01_00-00-05.log", 0%N, bs "z") ]
  /\ snap_of (fst (run (fst (run (sys0 0 0) (tsdkr_hist 0))) (OStart (tsdkr_cfg2 true) :: tsdkr_ops3 ++ [OStop])))
  = [ (bs "app_r1970-01-01_00-00-00.log", 0%N, bs "abcd"); (bs "app_r1970-01-01_00-00-00.restart-0000.log", 0%N, bs "efxy");
      (bs "app_r1970-01-01_00-00-05.log", 0%N, bs "z") ]
  /\ snap_of (fst (run (fst (run (sys0 0 0) (tsdkr_hist 0))) (OStart (tsdkr_cfg2 false) :: tsdkr_ops3 ++ [OStop])))
  = [ (bs "app_r1970-01-01_00-00-00.log", 0%N, bs "abcd"); (bs "app_r1970-01-01_00-00-00.restart-0000.log", 0%N, bs "ef");
      (bs "app_r1970-01-01_00-00-00.restart-0001.log", 0%N, bs "xy"); (bs "app_r1970-01-01_00-00-05.log", 0%N, bs "z") ].
Proof. vm_compute. repeat split; reflexivity. Qed.

(* the history of TsdKill.v with the clock tick, kill point 4: the rotating write of "m" has created <01> and was killed at its
   write.  A new writer without append in the same second 1: <01>.restart-0000 *)
Example tsdkr_after_rotating_write :
  snap_of (fst (run (fst (run (sys0 0 0) (tsdk_hist false 4))) (OTick 0 :: OStart (tsdkr_cfg2 false) :: tsdkr_ops3 ++ [OStop])))
  = [ (bs "app_r1970-01-01_00-00-00.log", 0%N, bs "abcd"); (bs "app_r1970-01-01_00-00-00.restart-0000.log", 0%N, bs "ef");
      (bs "app_r1970-01-01_00-00-00.restart-0001.log", 0%N, bs "ghijkl"); (bs "app_r1970-01-01_00-00-01.log", 0%N, []);
      (bs "app_r1970-01-01_00-00-01.restart-0000.log", 0%N, bs "xy"); (bs "app_r1970-01-01_00-00-06.log", 0%N, bs "z") ].
Proof. vm_compute. reflexivity. Qed.

(* a kill in the very first write (the first file is created, empty), then a new writer without append in the same second *)
Example tsdkr_after_first_write :
  snap_of (fst (run (fst (run (sys0 0 0) (OStart (tsdk_cfg true) :: [] ++ [OSetKill 1] ++ [OWrite (bs "a")] ++ [OCrash])))
                    (OStart (tsdkr_cfg2 false) :: tsdkr_ops3 ++ [OStop])))
  = [ (bs "app_r1970-01-01_00-00-00.log", 0%N, []); (bs "app_r1970-01-01_00-00-00.restart-0000.log", 0%N, bs "xy");
      (bs "app_r1970-01-01_00-00-05.log", 0%N, bs "z") ].
Proof. vm_compute. reflexivity. Qed.

Lemma tsdkr_basic2 : Forall basic_op tsdkr_ops2.
Proof. repeat constructor. Qed.
Lemma tsdkr_ticks2 : Forall tick_ok tsdkr_ops2.
Proof. repeat constructor. Qed.
Lemma tsdkr_basic3 : Forall basic_op tsdkr_ops3.
Proof. repeat constructor. Qed.
Lemma tsdkr_ticks3 : Forall tick_ok tsdkr_ops3.
Proof. repeat (apply Forall_cons; [cbn [tick_ok]; first [exact Logic.I | lia]|]); apply Forall_nil. Qed.
Lemma tsdkr_cfg2_ok app : tsdcfg (tsdkr_cfg2 app) (CSize 100).
Proof. apply tsd_cfg_ok. reflexivity. Qed.
Lemma tsdkr_cfg2_probe app : c_append (tsdkr_cfg2 app) = true -> probe_ok (tsdkr_cfg2 app).
Proof. intros _. apply probe_free_ok. vm_compute. reflexivity. Qed.

(* the theorems applied: the restart in the second of the kill, with append, on the empty newest file *)
Example tsdkr_restart_now_instance :
  let r2 := run (fst (run (sys0 0 0) (tsdkr_hist 1))) (OStart (tsdkr_cfg2 true) :: tsdkr_ops3 ++ [OStop]) in
  Forall obs_ok (snd r2)
  /\ exists keys files, tsd_view (tsdkr_cfg2 true) 0 (wfs (s_w (fst r2))) keys files /\ keys_ok keys /\ concat files = bs "abcdefxyz".
Proof.
  destruct (timestampsdirect_kill_restart_now (tsdk_cfg false) (CSize 3) (tsdkr_cfg2 true) (CSize 100) 0 0 tsdk_ops1 1 tsdkr_ops2 tsdkr_ops3
              (tsdk_cfg_ok false) (tsdk_tag_ok false) eq_refl (tsdkr_cfg2_ok true) eq_refl eq_refl (tsdkr_cfg2_probe true)
              tsdk_basic1 tsdkr_basic2 tsdkr_basic3 tsdk_ticks1 tsdkr_ticks2 tsdkr_ticks3) as [K [keys [files [V [Ko E]]]]];
    [change (0 <= 0)%Z; lia | change (5 + 0 < sec_max)%Z; unfold sec_max; lia | vm_compute; discriminate |].
  split; [exact K|]. exists keys, files. split; [exact V|]. split; [exact Ko|]. rewrite E. vm_compute. reflexivity.
Qed.

(* ... and after a clock tick of 0 seconds, without append, after the kill in the rotating write *)
Example tsdkr_restart_instance :
  let r2 := run (fst (run (sys0 0 0) (tsdk_hist false 4))) (OTick 0 :: OStart (tsdkr_cfg2 false) :: tsdkr_ops3 ++ [OStop]) in
  Forall obs_ok (snd r2)
  /\ exists keys files, tsd_view (tsdkr_cfg2 false) 0 (wfs (s_w (fst r2))) keys files /\ keys_ok keys
       /\ concat files = bs "abcdefghijklxyz".
Proof.
  destruct (timestampsdirect_kill_restart (tsdk_cfg false) (CSize 3) (tsdkr_cfg2 false) (CSize 100) 0 0 tsdk_ops1 4 tsdk_ops2 0 tsdkr_ops3
              (tsdk_cfg_ok false) (tsdk_tag_ok false) eq_refl (tsdkr_cfg2_ok false) eq_refl eq_refl (tsdkr_cfg2_probe false)
              tsdk_basic1 tsdk_basic2 tsdkr_basic3 tsdk_ticks1 tsdk_ticks2 tsdkr_ticks3 ltac:(lia))
    as [K [keys [files [V [Ko [_ E]]]]]];
    [change (0 <= 0)%Z; lia | change (6 + 0 < sec_max)%Z; unfold sec_max; lia | vm_compute; discriminate |].
  split; [exact K|]. exists keys, files. split; [exact V|]. split; [exact Ko|]. rewrite E. vm_compute. reflexivity.
Qed.

(* the files of the killed writer are kept: without append even the empty newest one *)
Example tsdkr_keep_instance :
  exists keys1 files1 keys2 files2 mk more,
    tsd_view (tsdk_cfg false) 0 (wfs (s_w (fst (run (sys0 0 0) (tsdk_hist false 4))))) keys1 files1
    /\ concat files1 = bs "abcdefghijkl"
    /\ tsd_view (tsdkr_cfg2 false) 0
         (wfs (s_w (fst (run (fst (run (sys0 0 0) (tsdk_hist false 4))) (OTick 0 :: OStart (tsdkr_cfg2 false) :: tsdkr_ops3 ++ [OStop]))))) keys2 files2
    /\ keys_ok keys2 /\ keys2 = keys1 ++ mk /\ files2 = files1 ++ more.
Proof.
  destruct (timestampsdirect_kill_restart_keep (tsdk_cfg false) (CSize 3) (tsdkr_cfg2 false) (CSize 100) 0 0 tsdk_ops1 4 tsdk_ops2 0 tsdkr_ops3
              (tsdk_cfg_ok false) (tsdk_tag_ok false) eq_refl (tsdkr_cfg2_ok false) eq_refl eq_refl (tsdkr_cfg2_probe false)
              tsdk_basic1 tsdk_basic2 tsdkr_basic3 tsdk_ticks1 tsdk_ticks2 tsdkr_ticks3 ltac:(lia))
    as [keys1 [files1 [keys2 [files2 [V1 [E1 [V2 [_ [Ko [_ X]]]]]]]]]];
    [change (0 <= 0)%Z; lia | change (6 + 0 < sec_max)%Z; unfold sec_max; lia | vm_compute; discriminate |].
  destruct (X eq_refl) as [mk [more [A B]]].
  exists keys1, files1, keys2, files2, mk, more. split; [exact V1|]. split; [rewrite E1; vm_compute; reflexivity|]. auto.
Qed.

Print Assumptions timestampsdirect_kill_restart.
Print Assumptions timestampsdirect_kill_restart_now.
Print Assumptions timestampsdirect_kill_restart_keep.
