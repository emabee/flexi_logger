(* Numbers naming with the write mode left open.  The writer thread of the asynchronous mode (Run.async_consume)
   calls the very same write_buffer / flush_state / shutdown_state as the synchronous handle, and what NumInv.v /
   NumRun.v prove of a rotation and of a write rests on a write_layout, in which the write mode does not occur.
   Here the layout of Numbers is taken at numcfg0, which leaves c_async open: its lo_rotate is the rotation, and the
   write is read off it. *)
Require Import FL.Base.Bytes FL.Names.FileSpec FL.Flw.Model FL.Flw.NumInv FL.Flw.Run FL.Flw.NumRun.
Open Scope nat_scope.

(* Numbers naming, no cleanup, no start-time part, no symlink; any write mode *)
Definition numcfg0 (c : config) (crit : criterion) : Prop :=
  c_rot c = Some (crit, NNumbers, KNever) /\ fts (c_spec c) = false /\ c_symlink c = false.

Lemma numcfg_numcfg0 c crit : numcfg c crit -> numcfg0 c crit.
Proof. exact (numcfg_rot c crit). Qed.

Lemma num_write0 : write_layout numcfg0 (fun n => NSNumR (N.of_nat n)) (fun c _ => cname c) NumInv.
Proof. exact (num_write numcfg0 (fun c crit H => H)). Qed.

Lemma write_rel0 c crit x a b :
  numcfg0 c crit -> Rel c crit x a ->
  exists s w' s' rot, s_flw x = Some s /\ f_poisoned s = false /\
    write_buffer s (s_w x) b = (Ok tt, w', s', rot)
    /\ Rel c crit {| s_flw := Some s'; s_w := w'; s_tl := []; s_dead := s_dead x |} (a_step a (OWrite b) rot)
    /\ (forall m, crit = CSize m ->
          rot = (m <? N.of_nat (length (match a with Some (_, cu) => cu | None => [] end)))%N).
Proof. exact (lwrite_rel _ _ _ _ num_write0 (num_start numcfg0 (fun c crit H => H)) c crit x a b). Qed.
