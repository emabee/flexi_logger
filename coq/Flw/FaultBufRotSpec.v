(* C19 for the buffered write modes WITH rotation (Numbers naming, size criterion, no cleanup, synchronous): the
   executable specification, and what it implies: every operation satisfies rstep_ok (rb_step_ok), the records kept and
   lost over a history (simrb_run_records, simrb_trace), recovery once no more failures come (recovery_spec_rb,
   buffered_rotation_recovery).  The specification combines FaultRotSpec (the rotation steps under a fault oracle)
   with FaultBufSpec (write_all of the BufWriter under a fault oracle).

   What the model does in addition to the two, read off Model.mount_next:
   - the size counter counts the ACCEPTED bytes (in the file or still in the buffer), so a rotation is due when file
     content + buffer content exceed the limit;
   - at a rotation, AFTER the rename of rCURRENT and the creation of the new rCURRENT, the old BufWriter is flushed
     explicitly into the (renamed) old file: a failure is REPORTED as EFlush; then the old writer is dropped, which
     flushes ONCE MORE, silently.  If both attempts fail, the whole content of the old buffer is LOST - announced by
     the one EFlush -, the rotation is complete all the same, and the incoming record goes into the new buffer;
   - when the rename or the creation fails (ELogFile), the record is handed to the OLD BufWriter (which may flush,
     and lose the incoming record, as without rotation). *)
Require Import FL.Base.Bytes FL.Base.BytesFacts FL.Fs.Fs FL.Flw.Model FL.Flw.Run FL.Flw.FaultFacts FL.Flw.FaultRotSpec
  FL.Flw.FaultRotation FL.Flw.FaultBufSpec.
From Coq Require Import ZifyN ZifyNat ZifyBool.
Open Scope nat_scope.

(* the abstract state, in terms of records: closed files, the writer's file, the buffer *)
Inductive rbst :=
| RInit (created : bool)                          (* writer not initialised; rCURRENT absent / present and empty *)
| RCur (cl : list (list bytes)) (D B : list bytes)   (* closed files cl; rCURRENT holds D; the buffer holds B *)
| ROld (cl : list (list bytes)) (D B : list bytes)   (* closed files cl ++ [D], no rCURRENT: the writer's file was renamed *)
| RStopped (cl : list (list bytes)) (ocur : option (list bytes)).   (* the writer has been dropped: closed files, rCURRENT *)

Definition rb_closed (st : rbst) : list bytes :=
  match st with
  | RInit _ => []
  | RCur cl _ _ => List.map (@concat N) cl
  | ROld cl D _ => List.map (@concat N) cl ++ [concat D]
  | RStopped cl _ => List.map (@concat N) cl
  end.
Definition rb_cur (st : rbst) : option bytes :=
  match st with
  | RInit created => if created then Some [] else None
  | RCur _ D _ => Some (concat D)
  | ROld _ _ _ => None
  | RStopped _ ocur => option_map (@concat N) ocur
  end.
Definition rb_pend (st : rbst) : option bytes :=
  match st with RCur _ _ B | ROld _ _ B => Some (concat B) | _ => None end.
(* the records: on disk (in order), in the buffer *)
Definition rb_disk (st : rbst) : list bytes :=
  match st with
  | RInit _ => []
  | RCur cl D _ | ROld cl D _ => concat cl ++ D
  | RStopped cl ocur => concat cl ++ match ocur with Some D => D | None => [] end
  end.
Definition rb_buf (st : rbst) : list bytes := match st with RCur _ _ B | ROld _ _ B => B | _ => [] end.
Definition rb_live (st : rbst) : Prop := match st with RStopped _ _ => False | _ => True end.

Record rout := mkrout { r_st : rbst; r_errs : list ecode; r_fl : list bool; r_code : N; r_lost : list bytes }.

(* the record is handed to the BufWriter whose file holds D and whose buffer holds B; e0 / lost0: what the rotation
   check before it has reported / lost *)
Definition rb_write (n : nat) (mk : list bytes -> list bytes -> rbst) (D B : list bytes) (b : bytes)
                    (e0 : list ecode) (fl : list bool) (lost0 : list bytes) : rout :=
  let out := sb_write n D B b fl in
  mkrout (mk (st_file (o_st out)) (st_buf (o_st out))) (e0 ++ o_errs out) (o_fl out) 0 (lost0 ++ o_lost out).

Definition rb_active (n : nat) (m : N) (old : bool) (cl : list (list bytes)) (D B : list bytes) (b : bytes) (fl : list bool) : rout :=
  let same := if old then ROld cl else RCur cl in
  if (m <? N.of_nat (length (concat D) + length (concat B)))%N then
    let '(f1, fl1) := pop fl in                                   (* rename rCURRENT -> r<index> *)
    if f1 then rb_write n same D B b [ELogFile] fl1 []
    else
      let '(f2, fl2) := pop fl1 in                                (* create the new rCURRENT *)
      if f2 then rb_write n (ROld cl) D B b [ELogFile] fl2 []
      else
        let '(g1, fl3) := wr_pop (concat B) fl2 in                (* flush the old writer: reported *)
        if g1 then
          let '(g2, fl4) := wr_pop (concat B) fl3 in              (* its drop: silent *)
          if g2 then rb_write n (RCur (cl ++ [D])) [] [] b [EFlush] fl4 B
          else rb_write n (RCur (cl ++ [D ++ B])) [] [] b [EFlush] fl4 []
        else rb_write n (RCur (cl ++ [D ++ B])) [] [] b [] fl3 []
  else rb_write n same D B b [] fl [].

Definition rb_init (n : nat) (app : bool) (m : N) (created : bool) (b : bytes) (fl : list bool) : rout :=
  match s_init_pops app fl with
  | (Some k, fl') => mkrout (RInit (created || k)) [EWrite] fl' 0 [b]
  | (None, fl') => rb_active n m false [] [] [] b fl'
  end.

Definition rb_flush (mk : list bytes -> list bytes -> rbst) (D B : list bytes) (fl : list bool) : rout :=
  let '(f, fl1) := wr_pop (concat B) fl in
  if f then mkrout (mk D B) [] fl1 1 [] else mkrout (mk (D ++ B) []) [] fl1 0 [].

Definition rb_stop (old : bool) (cl : list (list bytes)) (D B : list bytes) (fl : list bool) : rout :=
  let out := sb_stop D B fl in
  mkrout (if old then RStopped (cl ++ [st_file (o_st out)]) None else RStopped cl (Some (st_file (o_st out))))
         (o_errs out) (o_fl out) 0 (o_lost out).

Definition rb_step (n : nat) (app : bool) (m : N) (st : rbst) (o : op) (fl : list bool) : rout :=
  match st with
  | RStopped _ _ => mkrout st [] fl 3 []
  | RInit created =>
    match o with
    | OWrite b => rb_init n app m created b fl
    | OStop => mkrout (RStopped [] (if created then Some [] else None)) [] fl 0 []
    | _ => mkrout st [] fl 0 []
    end
  | RCur cl D B =>
    match o with
    | OWrite b => rb_active n m false cl D B b fl
    | OFlush => rb_flush (RCur cl) D B fl
    | OStop => rb_stop false cl D B fl
    | _ => mkrout st [] fl 0 []
    end
  | ROld cl D B =>
    match o with
    | OWrite b => rb_active n m true cl D B b fl
    | OFlush => rb_flush (ROld cl) D B fl
    | OStop => rb_stop true cl D B fl
    | _ => mkrout st [] fl 0 []
    end
  end.

Fixpoint simrb_run (n : nat) (app : bool) (m : N) (st : rbst) (fl : list bool) (ops : list op)
  : rbst * list ecode * list bool * list N * list bytes :=
  match ops with
  | [] => (st, [], fl, [], [])
  | o :: rest =>
    let out := rb_step n app m st o fl in
    let '(st2, e2, fl2, c2, l2) := simrb_run n app m (r_st out) (r_fl out) rest in
    (st2, r_errs out ++ e2, fl2, r_code out :: c2, r_lost out ++ l2)
  end.

(* closed files, current file, buffer, reported errors, rest of the oracle *)
Definition simrb (n : nat) (app : bool) (m : N) (fl : list bool) (ops : list op)
  : list bytes * option bytes * option bytes * list ecode * list bool :=
  let '(st, e, fl', _, _) := simrb_run n app m (RInit false) fl ops in (rb_closed st, rb_cur st, rb_pend st, e, fl').

Definition rop (o : op) : Prop := match o with OWrite _ | OFlush => True | _ => False end.
Definition rop_stop (o : op) : Prop := match o with OWrite _ | OFlush | OStop => True | _ => False end.

(* ------------------------------------------------------------------ one operation *)
Definition rb_all (st : rbst) : list bytes := rb_disk st ++ rb_buf st.

(* what one operation does.  used: the oracle entries it consumes; kb: the content of the buffer is kept (not kept:
   both flush attempts of a rotation, or all three of the drop, have failed); ki: the incoming record is kept.
   - every report has its own failing call; without a failing call nothing is reported, nothing is lost, result 0;
   - a loss is reported: the loss of the buffer by EFlush, the loss of the incoming record by EWrite;
   - what is on disk stays there, in place (rb_disk: the closed files, then the writer's file: it grows at its end) *)
Definition rstep_ok (st : rbst) (o : op) (fl : list bool) (out : rout) : Prop :=
  exists used add (kb ki : bool),
    fl = used ++ r_fl out
    /\ length (r_errs out) <= ntrue used
    /\ (ntrue used = 0 -> r_errs out = [] /\ r_lost out = [] /\ r_code out = 0%N)
    /\ (r_lost out <> [] -> r_errs out <> [])
    /\ rb_disk (r_st out) = rb_disk st ++ add
    /\ r_lost out = (if kb then [] else rb_buf st) ++ (if ki then [] else rec_of o)
    /\ rb_all (r_st out) = rb_disk st ++ (if kb then rb_buf st else []) ++ (if ki then rec_of o else [])
    /\ (kb = false -> In EFlush (r_errs out))
    /\ (ki = false -> In EWrite (r_errs out))
    /\ nlost (r_errs out) = (if ki then 0 else 1).

(* the write after the rotation check: pre / e0 / lost0 are what the check consumed / reported / lost; the writer that
   takes the record is on a file that holds base ++ D (records on disk) with the buffer B *)
Lemma rb_write_ok n mk base D B b e0 fl0 lost0 st fl pre (kb : bool) addD :
  (forall D' B', rb_disk (mk D' B') = base ++ D' /\ rb_buf (mk D' B') = B') ->
  fl = pre ++ fl0 -> length e0 <= ntrue pre -> (ntrue pre = 0 -> e0 = []) -> nlost e0 = 0 ->
  lost0 = (if kb then [] else rb_buf st) -> (kb = false -> In EFlush e0) ->
  (base ++ D) ++ B = rb_disk st ++ (if kb then rb_buf st else []) ->
  base ++ D = rb_disk st ++ addD ->
  rstep_ok st (OWrite b) fl (rb_write n mk D B b e0 fl0 lost0).
Proof.
  intros Hmk Hfl He0 Hn0 Hnl Hl0 Hkb Hall Hdisk. unfold rb_write.
  pose proof (sb_write_ok n D B b fl0) as S. pose proof (sb_write_live n D B b fl0) as Lv.
  destruct (sb_write n D B b fl0) as [st1 e1 fl1 c1 l1]. unfold step_okb in S. cbn [o_st o_errs o_fl o_code o_lost] in *.
  destruct S as [used1 [add1 [S1 [S2 [S3 [S4 [S5 S6]]]]]]]. cbn [st_file st_buf] in S5.
  destruct (Hmk (st_file st1) (st_buf st1)) as [M1 M2].
  assert (Hall1 : forall X, st_all st1 = (D ++ B) ++ X ->
            rb_all (mk (st_file st1) (st_buf st1)) = rb_disk st ++ (if kb then rb_buf st else []) ++ X).
  { intros X HX. unfold rb_all. rewrite M1, M2. unfold st_all in HX.
    rewrite <- (app_assoc base (st_file st1) (st_buf st1)), HX.
    assert (E : base ++ (D ++ B) ++ X = (rb_disk st ++ (if kb then rb_buf st else [])) ++ X)
      by (rewrite <- Hall, <- !app_assoc; reflexivity).
    rewrite E, <- app_assoc. reflexivity. }
  destruct S6 as [[El [Hn Ha]] | [[b' [Eb [El [Ha [Ee Hn]]]]] | [Eo _]]]; [| |discriminate Eo].
  - (* the record is accepted *)
    exists (pre ++ used1), (addD ++ add1), kb, true. cbn [r_st r_errs r_fl r_code r_lost rec_of].
    split; [rewrite Hfl, S1, app_assoc; reflexivity|].
    split; [rewrite app_length, ntrue_app; lia|].
    split. { rewrite ntrue_app. intros H0. assert (ntrue pre = 0) by lia. assert (ntrue used1 = 0) by lia.
             destruct (S3 H1) as [Ee1 [El1 _]]. rewrite Ee1, El1, (Hn0 H), Hl0. cbn [app]. rewrite app_nil_r.
             destruct kb; [auto|]. specialize (Hkb eq_refl). rewrite (Hn0 H) in Hkb. contradiction. }
    split. { rewrite El, app_nil_r, Hl0. intros Hne. destruct kb; [congruence|]. specialize (Hkb eq_refl).
             destruct e0; [contradiction | discriminate]. }
    split; [rewrite M1, S5, app_assoc, Hdisk, <- !app_assoc; reflexivity|].
    split; [rewrite El, Hl0; reflexivity|].
    split; [apply Hall1; exact Ha|].
    split; [intros Hk; apply in_or_app; left; apply Hkb; exact Hk|].
    split; [discriminate|]. rewrite nlost_app. lia.
  - (* the record is lost *)
    injection Eb as <-. exists (pre ++ used1), (addD ++ add1), kb, false. cbn [r_st r_errs r_fl r_code r_lost rec_of].
    split; [rewrite Hfl, S1, app_assoc; reflexivity|].
    split; [rewrite app_length, ntrue_app; lia|].
    split; [rewrite ntrue_app; intros H0; lia|].
    split; [rewrite Ee; intros _ H; apply app_eq_nil in H; destruct H; discriminate|].
    split; [rewrite M1, S5, app_assoc, Hdisk, <- !app_assoc; reflexivity|].
    split; [rewrite El, Hl0; reflexivity|].
    split; [rewrite app_nil_r; rewrite <- (app_nil_r (if kb then rb_buf st else [])); apply Hall1; rewrite app_nil_r; exact Ha|].
    split; [intros Hk; apply in_or_app; left; apply Hkb; exact Hk|].
    split; [intros _; apply in_or_app; right; rewrite Ee; left; reflexivity|].
    rewrite nlost_app, Ee, Hnl. reflexivity.
Qed.

Lemma rb_active_ok n m (old : bool) cl D B b fl :
  rstep_ok (if old then ROld cl D B else RCur cl D B) (OWrite b) fl (rb_active n m old cl D B b fl).
Proof.
  set (st := if old then ROld cl D B else RCur cl D B).
  assert (Hd : rb_disk st = concat cl ++ D) by (unfold st; destruct old; reflexivity).
  assert (Hb : rb_buf st = B) by (unfold st; destruct old; reflexivity).
  assert (Msame : forall D' B', rb_disk ((if old then ROld cl else RCur cl) D' B') = concat cl ++ D'
                                /\ rb_buf ((if old then ROld cl else RCur cl) D' B') = B') by (intros; destruct old; split; reflexivity).
  assert (Mold : forall D' B', rb_disk (ROld cl D' B') = concat cl ++ D' /\ rb_buf (ROld cl D' B') = B') by (intros; split; reflexivity).
  assert (Mnew : forall X D' B', rb_disk (RCur (cl ++ [X]) D' B') = (concat cl ++ X) ++ D' /\ rb_buf (RCur (cl ++ [X]) D' B') = B').
  { intros. cbn [rb_disk rb_buf]. rewrite concat_app. cbn [concat]. rewrite app_nil_r. split; reflexivity. }
  unfold rb_active.
  destruct (m <? N.of_nat (length (concat D) + length (concat B)))%N.
  - destruct (pop_used fl) as [u1 [U1 N1]]. destruct (pop fl) as [f1 fl1]. cbn [fst snd] in *. destruct f1; cbv iota in N1.
    + (* the rename fails *)
      apply (rb_write_ok n _ (concat cl) D B b [ELogFile] fl1 [] st fl u1 true []);
        [exact Msame | exact U1 | cbn; lia | intros H; lia | reflexivity | reflexivity | discriminate
        | rewrite Hd, Hb; reflexivity | rewrite Hd, app_nil_r; reflexivity].
    + destruct (pop_used fl1) as [u2 [U2 N2]]. destruct (pop fl1) as [f2 fl2]. cbn [fst snd] in *. destruct f2; cbv iota in N2.
      * (* the creation fails *)
        apply (rb_write_ok n _ (concat cl) D B b [ELogFile] fl2 [] st fl (u1 ++ u2) true []);
          [exact Mold | rewrite U1, U2, app_assoc; reflexivity | rewrite ntrue_app; cbn; lia | rewrite ntrue_app; intros H; lia
          | reflexivity | reflexivity | discriminate | rewrite Hd, Hb; reflexivity | rewrite Hd, app_nil_r; reflexivity].
      * destruct (wr_pop_used (concat B) fl2) as [u3 [U3 N3]]. destruct (wr_pop (concat B) fl2) as [g1 fl3]. cbn [fst snd] in *.
        destruct g1; cbv iota in N3.
        -- destruct (wr_pop_used (concat B) fl3) as [u4 [U4 N4]]. destruct (wr_pop (concat B) fl3) as [g2 fl4]. cbn [fst snd] in *.
           assert (Hfl : fl = (u1 ++ u2 ++ u3 ++ u4) ++ fl4) by (rewrite U1, U2, U3, U4, <- !app_assoc; reflexivity).
           destruct g2; cbv iota in N4.
           ++ (* both attempts fail: the old buffer is lost *)
              apply (rb_write_ok n _ (concat cl ++ D) [] [] b [EFlush] fl4 B st fl (u1 ++ u2 ++ u3 ++ u4) false []);
                [apply Mnew | exact Hfl | rewrite !ntrue_app; cbn; lia | rewrite !ntrue_app; intros H; lia | reflexivity
                | rewrite Hb; reflexivity | intros _; left; reflexivity | rewrite Hd, !app_nil_r; reflexivity
                | rewrite Hd, !app_nil_r; reflexivity].
           ++ apply (rb_write_ok n _ (concat cl ++ (D ++ B)) [] [] b [EFlush] fl4 [] st fl (u1 ++ u2 ++ u3 ++ u4) true B);
                [apply Mnew | exact Hfl | rewrite !ntrue_app; cbn; lia | rewrite !ntrue_app; intros H; lia | reflexivity
                | reflexivity | discriminate | rewrite Hd, Hb, !app_nil_r, !app_assoc; reflexivity
                | rewrite Hd, !app_nil_r, !app_assoc; reflexivity].
        -- apply (rb_write_ok n _ (concat cl ++ (D ++ B)) [] [] b [] fl3 [] st fl (u1 ++ u2 ++ u3) true B);
             [apply Mnew | rewrite U1, U2, U3, <- !app_assoc; reflexivity | cbn; lia | reflexivity | reflexivity
             | reflexivity | discriminate | rewrite Hd, Hb, !app_nil_r, !app_assoc; reflexivity
             | rewrite Hd, !app_nil_r, !app_assoc; reflexivity].
  - apply (rb_write_ok n _ (concat cl) D B b [] fl [] st fl [] true []);
      [exact Msame | reflexivity | cbn; lia | reflexivity | reflexivity | reflexivity | discriminate
      | rewrite Hd, Hb; reflexivity | rewrite Hd, app_nil_r; reflexivity].
Qed.

Lemma s_init_pops_used app fl :
  acct fl (snd (s_init_pops app fl)) (match fst (s_init_pops app fl) with Some _ => 1 | None => 0 end).
Proof.
  unfold s_init_pops.
  pose proof (pop_used fl) as C1. destruct (pop fl) as [f1 fl1]. cbn [fst snd] in C1. destruct f1; [exact C1|].
  pose proof (acct_trans _ _ _ _ _ C1 (proj2 (pop_if_used app fl1))) as C2.
  destruct (if app then (false, fl1) else pop fl1) as [f2 fl2]. cbn [fst snd] in C2. destruct f2; [exact C2|].
  pose proof (acct_trans _ _ _ _ _ C2 (pop_used fl2)) as C3. destruct (pop fl2) as [f3 fl3]. cbn [fst snd] in C3.
  destruct f3; [exact C3|].
  pose proof (acct_trans _ _ _ _ _ C3 (proj1 (pop_if_used app fl3))) as C4.
  destruct (if app then pop fl3 else (false, fl3)) as [f4 fl4]. cbn [fst snd] in C4. destruct f4; exact C4.
Qed.

(* a prefix of the oracle without failures is consumed before: the statement carries over *)
Lemma rstep_ok_prefix st st0 o fl pre fl0 out : fl = pre ++ fl0 -> ntrue pre = 0 ->
  rb_disk st0 = rb_disk st -> rb_buf st0 = rb_buf st -> rstep_ok st0 o fl0 out -> rstep_ok st o fl out.
Proof.
  intros Hfl Hn Hd Hb [used [add [kb [ki [H1 [H2 [H3 [H4 [H5 [H6 [H7 [H8 [H9 H10]]]]]]]]]]]]].
  exists (pre ++ used), add, kb, ki. rewrite ntrue_app, Hn. cbn [plus]. rewrite <- Hd, <- Hb.
  split; [rewrite Hfl, H1, app_assoc; reflexivity|]. auto 12.
Qed.

Lemma rb_init_ok n ap m created b fl : rstep_ok (RInit created) (OWrite b) fl (rb_init n ap m created b fl).
Proof.
  unfold rb_init. destruct (s_init_pops_used ap fl) as [u [U Nu]].
  destruct (s_init_pops ap fl) as [[k|] fl']; cbn [fst snd] in *.
  - exists u, [], true, false. cbn [r_st r_errs r_fl r_code r_lost rb_disk rb_buf rec_of app length].
    split; [exact U|]. split; [lia|]. split; [intros H; lia|]. split; [discriminate|]. split; [reflexivity|].
    split; [reflexivity|]. split; [reflexivity|]. split; [discriminate|]. split; [intros _; left; reflexivity | reflexivity].
  - apply (rstep_ok_prefix (RInit created) (RCur [] [] []) (OWrite b) fl u fl'); [exact U | exact Nu | reflexivity | reflexivity|].
    apply (rb_active_ok n m false [] [] [] b fl').
Qed.

Lemma rb_flush_ok (old : bool) cl D B fl :
  rstep_ok (if old then ROld cl D B else RCur cl D B) OFlush fl (rb_flush (if old then ROld cl else RCur cl) D B fl).
Proof.
  unfold rb_flush. destruct (wr_pop_used (concat B) fl) as [u [U Nu]]. destruct (wr_pop (concat B) fl) as [f fl1]. cbn [fst snd] in *.
  assert (Hd : forall D' B', rb_disk ((if old then ROld cl else RCur cl) D' B') = concat cl ++ D'
                             /\ rb_buf ((if old then ROld cl else RCur cl) D' B') = B') by (intros; destruct old; split; reflexivity).
  assert (E : (if old then ROld cl D B else RCur cl D B) = (if old then ROld cl else RCur cl) D B) by (destruct old; reflexivity).
  rewrite E. destruct (Hd D B) as [Hd1 Hb1]. destruct f; cbv iota in Nu.
  - exists u, [], true, true. cbn [r_st r_errs r_fl r_code r_lost rec_of app length]. rewrite !app_nil_r.
    split; [exact U|]. split; [lia|]. split; [intros H; lia|]. split; [congruence|]. split; [reflexivity|]. split; [reflexivity|].
    split; [reflexivity|]. split; [discriminate|]. split; [discriminate | reflexivity].
  - destruct (Hd (D ++ B) []) as [Hd2 Hb2].
    exists u, B, true, true. cbn [r_st r_errs r_fl r_code r_lost rec_of app length]. unfold rb_all. rewrite Hd1, Hb1, Hd2, Hb2, !app_nil_r.
    split; [exact U|]. split; [lia|]. split; [auto|]. split; [congruence|]. split; [rewrite app_assoc; reflexivity|].
    split; [reflexivity|]. split; [rewrite !app_assoc; reflexivity|]. split; [discriminate|]. split; [discriminate | reflexivity].
Qed.

Lemma rb_stop_ok (old : bool) cl D B fl :
  rstep_ok (if old then ROld cl D B else RCur cl D B) OStop fl (rb_stop old cl D B fl).
Proof.
  unfold rb_stop. pose proof (sb_stop_ok D B fl) as S. unfold step_okb in S.
  assert (Hst : exists F', o_st (sb_stop D B fl) = BStopped F').
  { unfold sb_stop.
    repeat match goal with
           | |- context [if ?x then _ else _] => match type of x with bool => destruct x end
           | |- context [let '(_, _) := ?p in _] => destruct p
           end; cbn [o_st]; eexists; reflexivity. }
  destruct (sb_stop D B fl) as [st1 e1 fl1 c1 l1]. cbn [o_st o_errs o_fl o_code o_lost] in *.
  destruct Hst as [F' ->]. cbn [st_file st_buf] in *.
  destruct S as [used [add [S1 [S2 [S3 [S4 [S5 S6]]]]]]].
  assert (Hd : rb_disk (if old then ROld cl D B else RCur cl D B) = concat cl ++ D) by (destruct old; reflexivity).
  assert (Hb : rb_buf (if old then ROld cl D B else RCur cl D B) = B) by (destruct old; reflexivity).
  assert (Hd2 : rb_disk (if old then RStopped (cl ++ [F']) None else RStopped cl (Some F')) = concat cl ++ F').
  { destruct old; cbn [rb_disk]; [rewrite concat_app; cbn [concat]; rewrite !app_nil_r|]; reflexivity. }
  assert (Hb2 : rb_buf (if old then RStopped (cl ++ [F']) None else RStopped cl (Some F')) = []) by (destruct old; reflexivity).
  assert (Hc : ntrue used = 0 -> e1 = [] /\ l1 = [] /\ 0%N = 0%N) by (intros H; destruct (S3 H) as [H1 [H2 _]]; auto).
  destruct S6 as [[El [Hn Ha]] | [[b' [Eb _]] | [_ [El [Hne [Est [Ee Eu]]]]]]]; [|discriminate Eb|].
  - unfold st_all in Ha. cbn [st_file st_buf rec_of] in Ha. rewrite !app_nil_r in Ha. rewrite Ha in *. clear Ha.
    exists used, B, true, true. cbn [r_st r_errs r_fl r_code r_lost rec_of]. unfold rb_all. rewrite Hd, Hb, Hd2, Hb2, El, !app_nil_r.
    split; [exact S1|]. split; [exact S2|]. split; [intros H; destruct (Hc H) as [H1 _]; auto|]. split; [congruence|].
    split; [rewrite app_assoc; reflexivity|].
    split; [reflexivity|]. split; [rewrite app_assoc; reflexivity|]. split; [discriminate|]. split; [discriminate | exact Hn].
  - injection Est as ->. exists used, [], false, true. cbn [r_st r_errs r_fl r_code r_lost rec_of]. unfold rb_all.
    rewrite Hd, Hb, Hd2, Hb2, El, Ee, !app_nil_r.
    split; [exact S1|]. split; [rewrite Ee in S2; exact S2|]. split; [intros H; rewrite Eu in H; cbn in H; lia|].
    split; [discriminate|]. split; [reflexivity|]. split; [reflexivity|]. split; [reflexivity|].
    split; [intros _; left; reflexivity|]. split; [discriminate | reflexivity].
Qed.

Theorem rb_step_ok n ap m st o fl : rb_live st -> rop_stop o -> rstep_ok st o fl (rb_step n ap m st o fl).
Proof.
  intros Hl Ho.
  assert (Nop : forall st0, rec_of o = [] -> rstep_ok st0 o fl (mkrout st0 [] fl 0 [])).
  { intros st0 Hr. exists [], [], true, true. cbn [r_st r_errs r_fl r_code r_lost app length]. unfold rb_all. rewrite Hr, !app_nil_r.
    split; [reflexivity|]. split; [cbn; lia|]. split; [auto|]. split; [congruence|]. split; [reflexivity|]. split; [reflexivity|].
    split; [reflexivity|]. split; [discriminate|]. split; [discriminate | reflexivity]. }
  destruct st as [created|cl D B|cl D B|cl ocur]; [| | |contradiction]; cbn [rb_step].
  - destruct o; try contradiction; try (apply Nop; reflexivity).
    + apply rb_init_ok.
    + exists [], [], true, true. cbn [r_st r_errs r_fl r_code r_lost app length rec_of]. unfold rb_all.
      cbn [rb_disk rb_buf concat app]. destruct created; cbn [app];
        (split; [reflexivity|]; split; [cbn; lia|]; split; [auto|]; split; [congruence|]; split; [reflexivity|]; split; [reflexivity|];
         split; [reflexivity|]; split; [discriminate|]; split; [discriminate | reflexivity]).
  - destruct o; try contradiction.
    + apply (rb_active_ok n m false).
    + apply (rb_flush_ok false).
    + apply (rb_stop_ok false).
  - destruct o; try contradiction.
    + apply (rb_active_ok n m true).
    + apply (rb_flush_ok true).
    + apply (rb_stop_ok true).
Qed.

Lemma rb_step_live n ap m st o fl : rb_live st -> rop o -> rb_live (r_st (rb_step n ap m st o fl)).
Proof.
  intros Hl Ho.
  assert (A : forall old cl D B b fl0, rb_live (r_st (rb_active n m old cl D B b fl0))).
  { intros old cl D B b fl0. unfold rb_active, rb_write.
    repeat match goal with
           | |- context [if ?x then _ else _] => match type of x with bool => destruct x end
           | |- context [let '(_, _) := ?p in _] => destruct p
           end; exact I. }
  destruct st as [created|cl D B|cl D B|cl ocur]; [| | |contradiction]; cbn [rb_step]; destruct o; try contradiction; try exact I.
  - unfold rb_init. destruct (s_init_pops ap fl) as [[k|] fl']; [exact I | apply A].
  - apply A.
  - unfold rb_flush. destruct (wr_pop (concat B) fl) as [f fl1]. destruct f; exact I.
  - apply A.
  - unfold rb_flush. destruct (wr_pop (concat B) fl) as [f fl1]. destruct f; exact I.
Qed.

(* ------------------------------------------------------------------ whole histories *)
(* With rotation.  A history of log calls and flushes, possibly ended by the drop.  What is on disk (closed files in
   order, then the writer's file) followed by the buffer is the records of the history, in order, each at most once
   (`kept`, a subsequence); exactly the others are lost (counted); every report has its own failing call; what is on
   disk stays there, in place *)
Theorem simrb_run_records n ap m : forall ops st fl tail, rb_live st -> Forall rop ops -> tail = [] \/ tail = [OStop] ->
  let '(st', e, fl', codes, lost) := simrb_run n ap m st fl (ops ++ tail) in
  exists kept used add,
    Subseq kept (rb_buf st ++ recs_of ops) /\ rb_all st' = rb_disk st ++ kept
    /\ length (rb_buf st ++ recs_of ops) = length kept + length lost
    /\ fl = used ++ fl' /\ length e <= ntrue used
    /\ rb_disk st' = rb_disk st ++ add.
Proof.
  (* one step, then a run *)
  assert (Step : forall st o fl out st2 e2 fl2 (l2 : list bytes) rest,
    rstep_ok st o fl out ->
    (exists kept used add,
        Subseq kept (rb_buf (r_st out) ++ recs_of rest) /\ rb_all st2 = rb_disk (r_st out) ++ kept
        /\ length (rb_buf (r_st out) ++ recs_of rest) = length kept + length l2
        /\ r_fl out = used ++ fl2 /\ length e2 <= ntrue used
        /\ rb_disk st2 = rb_disk (r_st out) ++ add) ->
    exists kept used add,
        Subseq kept (rb_buf st ++ rec_of o ++ recs_of rest) /\ rb_all st2 = rb_disk st ++ kept
        /\ length (rb_buf st ++ rec_of o ++ recs_of rest) = length kept + length (r_lost out ++ l2)
        /\ fl = used ++ fl2 /\ length (r_errs out ++ e2) <= ntrue used
        /\ rb_disk st2 = rb_disk st ++ add).
  { intros st o fl out st2 e2 fl2 l2 rest [used [add [kb [ki [H1 [H2 [H3 [H4 [H5 [H6 [H7 _]]]]]]]]]]]
           [kept2 [used2 [add2 [K1 [K2 [K3 [K4 [K5 K6]]]]]]]].
    (* what the step keeps: X = add ++ buffer afterwards *)
    set (X := (if kb then rb_buf st else []) ++ (if ki then rec_of o else [])) in *.
    assert (HX : X = add ++ rb_buf (r_st out)).
    { unfold rb_all in H7. rewrite H5, <- app_assoc in H7. apply app_inv_head in H7. symmetry. exact H7. }
    assert (SX : Subseq X (rb_buf st ++ rec_of o)).
    { unfold X. apply subseq_app; [destruct kb; [apply subseq_refl | apply subseq_nil] | destruct ki; [apply subseq_refl | apply subseq_nil]]. }
    assert (LX : length (rb_buf st ++ rec_of o) = length X + length (r_lost out)).
    { unfold X. rewrite H6, !app_length. destruct kb, ki; cbn [length]; lia. }
    exists (add ++ kept2), (used ++ used2), (add ++ add2).
    split. { apply (subseq_trans (X ++ recs_of rest)).
             - rewrite app_assoc. apply subseq_app; [exact SX | apply subseq_refl].
             - rewrite HX, <- app_assoc. apply subseq_app; [apply subseq_refl | exact K1]. }
    split; [rewrite K2, H5, <- app_assoc; reflexivity|].
    split. { rewrite app_assoc, app_length, LX, HX. rewrite !app_length in *. lia. }
    split; [rewrite H1, K4, app_assoc; reflexivity|].
    split; [rewrite app_length, ntrue_app; lia|].
    rewrite K6, H5, <- app_assoc. reflexivity. }
  induction ops as [|o rest IH]; intros st fl tail Hl Hb Ht.
  - cbn [app]. destruct Ht as [->| ->]; cbn [simrb_run].
    + exists (rb_buf st), [], []. cbn [recs_of List.map concat length ntrue filter]. rewrite !app_nil_r.
      split; [apply subseq_refl|]. split; [reflexivity|]. split; [lia|]. split; [reflexivity|]. split; [cbn; lia | reflexivity].
    + pose proof (rb_step_ok n ap m st OStop fl Hl I) as S.
      destruct (rb_step n ap m st OStop fl) as [st1 e1 fl1 c1 l1].
      destruct (Step st OStop fl _ st1 [] fl1 [] [] S) as [kept [used [add H]]].
      { cbn [r_st r_fl]. exists (rb_buf st1), [], []. cbn [recs_of List.map concat length]. rewrite !app_nil_r.
        split; [apply subseq_refl|]. split; [reflexivity|]. split; [lia|]. split; [reflexivity|]. split; [cbn; lia | reflexivity]. }
      cbn [r_st r_errs r_fl r_code r_lost rec_of recs_of List.map concat app] in *. exists kept, used, add. exact H.
  - inversion Hb as [|o' r' Ho Hr]; subst o' r'. cbn [app simrb_run].
    assert (Ho' : rop_stop o) by (destruct o; try contradiction; exact I).
    pose proof (rb_step_ok n ap m st o fl Hl Ho') as S. pose proof (rb_step_live n ap m st o fl Hl Ho) as L.
    specialize (IH (r_st (rb_step n ap m st o fl)) (r_fl (rb_step n ap m st o fl)) tail L Hr Ht).
    destruct (simrb_run n ap m (r_st (rb_step n ap m st o fl)) (r_fl (rb_step n ap m st o fl)) (rest ++ tail)) as [[[[st2 e2] fl2] c2] l2].
    rewrite recs_of_cons. exact (Step st o fl _ st2 e2 fl2 l2 rest S IH).
Qed.

(* record by record: the operations with the state before, the oracle before, and the outcome *)
Fixpoint rb_trace (n : nat) (ap : bool) (m : N) (st : rbst) (fl : list bool) (ops : list op) : list (rbst * op * list bool * rout) :=
  match ops with
  | [] => []
  | o :: rest => let out := rb_step n ap m st o fl in (st, o, fl, out) :: rb_trace n ap m (r_st out) (r_fl out) rest
  end.
Definition tr_out (x : rbst * op * list bool * rout) : rout := snd x.
Definition tr_ok (x : rbst * op * list bool * rout) : Prop := let '(st, o, fl, out) := x in rstep_ok st o fl out.
Definition tr_loses (x : rbst * op * list bool * rout) : bool := match r_lost (tr_out x) with [] => false | _ => true end.

Theorem simrb_trace n ap m : forall ops st fl tail, rb_live st -> Forall rop ops -> tail = [] \/ tail = [OStop] ->
  let '(st', e, fl', codes, lost) := simrb_run n ap m st fl (ops ++ tail) in
  let t := rb_trace n ap m st fl (ops ++ tail) in
  e = concat (List.map (fun x => r_errs (tr_out x)) t)
  /\ lost = concat (List.map (fun x => r_lost (tr_out x)) t)
  /\ codes = List.map (fun x => r_code (tr_out x)) t
  /\ Forall tr_ok t
  /\ length (filter tr_loses t) <= length e.
Proof.
  induction ops as [|o rest IH]; intros st fl tail Hl Hb Ht.
  - cbn [app]. destruct Ht as [->| ->]; cbn [simrb_run rb_trace].
    + cbv zeta. cbn [List.map concat filter length]. split; [reflexivity|]. split; [reflexivity|]. split; [reflexivity|]. split; [constructor | lia].
    + pose proof (rb_step_ok n ap m st OStop fl Hl I) as S.
      destruct (rb_step n ap m st OStop fl) as [st1 e1 fl1 c1 l1] eqn:Es. cbv zeta.
      cbn [List.map concat tr_out snd r_errs r_lost r_code filter]. rewrite !app_nil_r.
      split; [reflexivity|]. split; [reflexivity|]. split; [reflexivity|]. split; [constructor; [exact S | constructor]|].
      unfold tr_loses. cbn [tr_out snd r_lost]. destruct S as [_ [_ [_ [_ [_ [_ [_ [S4 _]]]]]]]]. cbn [r_lost r_errs] in S4.
      destruct l1; cbn [length]; [lia|]. destruct e1; [exfalso; apply S4; [discriminate | reflexivity] | cbn [length]; lia].
  - inversion Hb as [|o' r' Ho Hr]; subst o' r'. cbn [app simrb_run rb_trace].
    assert (Ho' : rop_stop o) by (destruct o; try contradiction; exact I).
    pose proof (rb_step_ok n ap m st o fl Hl Ho') as S. pose proof (rb_step_live n ap m st o fl Hl Ho) as L.
    specialize (IH (r_st (rb_step n ap m st o fl)) (r_fl (rb_step n ap m st o fl)) tail L Hr Ht).
    destruct (simrb_run n ap m (r_st (rb_step n ap m st o fl)) (r_fl (rb_step n ap m st o fl)) (rest ++ tail)) as [[[[st2 e2] fl2] c2] l2].
    cbv zeta in IH |- *. destruct IH as [I1 [I2 [I3 [I4 I5]]]].
    cbn [List.map concat tr_out snd filter]. rewrite <- I1, <- I2, <- I3.
    split; [reflexivity|]. split; [reflexivity|]. split; [reflexivity|]. split; [constructor; [exact S | exact I4]|].
    unfold tr_loses at 1. cbn [tr_out snd]. rewrite app_length.
    destruct S as [_ [_ [_ [_ [_ [_ [_ [S4 _]]]]]]]].
    destruct (r_lost (rb_step n ap m st o fl)); cbn [length]; [lia|].
    destruct (r_errs (rb_step n ap m st o fl)); [exfalso; apply S4; [discriminate | reflexivity] | cbn [length]; lia].
Qed.

(* ------------------------------------------------------------------ recovery *)
Lemma rb_step_recovered n ap m st o fl : all_false fl -> rb_live st -> rop_stop o ->
  let out := rb_step n ap m st o fl in
  r_errs out = [] /\ r_lost out = [] /\ r_code out = 0%N /\ all_false (r_fl out)
  /\ rb_all (r_st out) = rb_all st ++ rec_of o
  /\ exists add, rb_disk (r_st out) = rb_disk st ++ add.
Proof.
  intros Hf Hl Ho. cbv zeta.
  destruct (rb_step_ok n ap m st o fl Hl Ho) as [used [add [kb [ki [H1 [H2 [H3 [H4 [H5 [H6 [H7 [H8 [H9 H10]]]]]]]]]]]]].
  rewrite H1 in Hf. apply all_false_app in Hf. destruct Hf as [Hu Hf'].
  assert (Hn : ntrue used = 0) by (apply ntrue_0_all_false; exact Hu).
  destruct (H3 Hn) as [E1 [E2 E3]]. split; [exact E1|]. split; [exact E2|]. split; [exact E3|]. split; [exact Hf'|].
  split; [|exists add; exact H5].
  rewrite E1 in H8, H9. destruct kb; [|destruct (H8 eq_refl)]. destruct ki; [|destruct (H9 eq_refl)].
  rewrite H7. unfold rb_all. rewrite app_assoc. reflexivity.
Qed.

Lemma rb_final_empty n ap m st o fl : all_false fl -> rb_live st -> o = OFlush \/ o = OStop ->
  rb_buf (r_st (rb_step n ap m st o fl)) = [].
Proof.
  intros Hf Hl Ho.
  destruct st as [created|cl D B|cl D B|cl ocur]; [| | |contradiction]; cbn [rb_step].
  - destruct Ho as [->| ->]; reflexivity.
  - destruct (wr_pop_all_false (concat B) fl Hf) as [W1 _].
    destruct Ho as [->| ->]; unfold rb_flush, rb_stop; [destruct (wr_pop (concat B) fl) as [f fl1]; cbn [fst] in W1; subst f; reflexivity | reflexivity].
  - destruct (wr_pop_all_false (concat B) fl Hf) as [W1 _].
    destruct Ho as [->| ->]; unfold rb_flush, rb_stop; [destruct (wr_pop (concat B) fl) as [f fl1]; cbn [fst] in W1; subst f; reflexivity | reflexivity].
Qed.

Lemma simrb_run_app n ap m : forall ops1 ops2 st fl,
  simrb_run n ap m st fl (ops1 ++ ops2)
  = let '(st1, e1, fl1, c1, l1) := simrb_run n ap m st fl ops1 in
    let '(st2, e2, fl2, c2, l2) := simrb_run n ap m st1 fl1 ops2 in (st2, e1 ++ e2, fl2, c1 ++ c2, l1 ++ l2).
Proof.
  induction ops1 as [|o rest IH]; intros ops2 st fl; cbn [Datatypes.app simrb_run].
  - destruct (simrb_run n ap m st fl ops2) as [[[[st2 e2] fl2] c2] l2]. reflexivity.
  - rewrite IH. destruct (simrb_run n ap m (r_st (rb_step n ap m st o fl)) (r_fl (rb_step n ap m st o fl)) rest) as [[[[st1 e1] fl1] c1] l1].
    destruct (simrb_run n ap m st1 fl1 ops2) as [[[[st2 e2] fl2] c2] l2]. rewrite !app_assoc. reflexivity.
Qed.

(* once no more failures come: nothing more is reported or lost, every call returns 0, every further record is accepted
   behind what is there (disk, then buffer); rotation works again (the records are distributed over the files by the
   size rule, which the refinement theorem ties to the directory) *)
Theorem recovery_spec_rb n ap m : forall ops st fl, all_false fl -> rb_live st -> Forall rop ops ->
  let '(st', e, fl', codes, lost) := simrb_run n ap m st fl ops in
  e = [] /\ lost = [] /\ Forall (fun k => k = 0%N) codes /\ all_false fl' /\ rb_live st'
  /\ rb_all st' = rb_all st ++ recs_of ops.
Proof.
  induction ops as [|o rest IH]; intros st fl Hf Hl Hb; cbn [simrb_run].
  - cbn. rewrite app_nil_r. repeat split; auto.
  - inversion Hb as [|o' r' Ho Hr]; subst o' r'.
    assert (Ho' : rop_stop o) by (destruct o; try contradiction; exact I).
    pose proof (rb_step_recovered n ap m st o fl Hf Hl Ho') as S. pose proof (rb_step_live n ap m st o fl Hl Ho) as L. cbv zeta in S.
    destruct (rb_step n ap m st o fl) as [st1 e1 fl1 c1 l1]. cbn [r_st r_errs r_fl r_code r_lost] in *.
    destruct S as [-> [-> [-> [Hf1 [Ha _]]]]].
    specialize (IH st1 fl1 Hf1 L Hr). destruct (simrb_run n ap m st1 fl1 rest) as [[[[st2 e2] fl2] c2] l2].
    destruct IH as [-> [-> [Hc [Hf2 [L2 Ha2]]]]].
    split; [reflexivity|]. split; [reflexivity|]. split; [constructor; [reflexivity | exact Hc]|]. split; [exact Hf2|].
    split; [exact L2|]. rewrite Ha2, Ha, recs_of_cons, app_assoc. reflexivity.
Qed.

(* a history ops1 after which the rest of the oracle holds no failure, continued by ops2 and a final flush or drop:
   nothing more is reported or lost, and everything accepted after ops1 (disk and buffer) followed by all records of
   ops2 is on disk *)
Theorem buffered_rotation_recovery n ap m fl ops1 ops2 f : Forall rop ops1 -> Forall rop ops2 -> f = OFlush \/ f = OStop ->
  let '(st1, e1, fl1, _, l1) := simrb_run n ap m (RInit false) fl ops1 in
  all_false fl1 ->
  let '(st2, e2, fl2, c2, l2) := simrb_run n ap m (RInit false) fl (ops1 ++ ops2 ++ [f]) in
  e2 = e1 /\ l2 = l1 /\ rb_disk st2 = rb_all st1 ++ recs_of ops2 /\ rb_buf st2 = [] /\ all_false fl2.
Proof.
  intros H1 H2 Hfin. rewrite simrb_run_app.
  assert (L1 : rb_live (fst (fst (fst (fst (simrb_run n ap m (RInit false) fl ops1)))))).
  { clear H2 Hfin. generalize (RInit false) fl (I : rb_live (RInit false)). induction ops1 as [|o rest IH]; intros st fl0 Hl; [exact Hl|].
    inversion H1 as [|o' r' Ho Hr]; subst o' r'. cbn [simrb_run].
    specialize (IH Hr _ (r_fl (rb_step n ap m st o fl0)) (rb_step_live n ap m st o fl0 Hl Ho)).
    destruct (simrb_run n ap m (r_st (rb_step n ap m st o fl0)) (r_fl (rb_step n ap m st o fl0)) rest) as [[[[st2 e2] fl2] c2] l2]. exact IH. }
  destruct (simrb_run n ap m (RInit false) fl ops1) as [[[[st1 e1] fl1] c1] l1]. cbn [fst] in L1. intros Hf.
  rewrite simrb_run_app. pose proof (recovery_spec_rb n ap m ops2 st1 fl1 Hf L1 H2) as R.
  destruct (simrb_run n ap m st1 fl1 ops2) as [[[[st2 e2] fl2] c2] l2]. destruct R as [-> [-> [_ [Hf2 [L2 Ha]]]]].
  cbn [simrb_run].
  assert (Ho' : rop_stop f) by (destruct Hfin as [->| ->]; exact I).
  pose proof (rb_step_recovered n ap m st2 f fl2 Hf2 L2 Ho') as S. pose proof (rb_final_empty n ap m st2 f fl2 Hf2 L2 Hfin) as Eb. cbv zeta in S.
  destruct (rb_step n ap m st2 f fl2) as [st3 e3 fl3 c3 l3]. cbn [r_st r_errs r_fl r_code r_lost] in *.
  destruct S as [-> [-> [_ [Hf3 [Ha3 _]]]]]. rewrite !app_nil_r.
  split; [reflexivity|]. split; [reflexivity|]. split; [|split; [exact Eb | exact Hf3]].
  unfold rb_all in Ha3 at 1. rewrite Eb, app_nil_r in Ha3. rewrite Ha3, Ha.
  destruct Hfin as [->| ->]; cbn [rec_of]; rewrite app_nil_r; reflexivity.
Qed.

Print Assumptions rb_step_ok.
Print Assumptions simrb_run_records.
Print Assumptions simrb_trace.
Print Assumptions buffered_rotation_recovery.
