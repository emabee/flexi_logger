(* The asynchronous write mode simulates the synchronous one: ALL configurations (every naming scheme, criterion,
   cleanup), histories of basic operations.

   1. Model.v never looks at c_async: every function of the state machine gives the same result for c and for
      sync_of c (c with c_async := false)  -  initialize_mode, mount_next_mode, write_buffer_mode, flush_state_mode,
      shutdown_state_mode, drop_state_mode.
   2. Hence the run of an asynchronous writer (Run.async_consume: the writer thread calls write_buffer / flush_state /
      shutdown_state for the messages; every message is consumed before the next operation starts - the scheduling
      assumption of the model and of the harness) and the run of the synchronous writer with the same remaining
      configuration go through THE SAME WORLDS (file system, clock, error channel, ...), operation by operation, as
      long as the synchronous run returns normal results (code 0: no error result, no panic): sim_run.  The
      observations agree except for the rotation flag, which the asynchronous caller never sees (no_rot).
      Where the two handles differ on failures (not covered, and the reason for the hypothesis): a failing raw write
      or flush is returned to the caller by the synchronous handle and reported on the error channel by the writer
      thread; a panic ends the writer thread, whereas the synchronous caller keeps the formatted record in its
      thread-local buffer.
   3. Dropping the writer: the asynchronous handle sends the shutdown message and then drops the state, which is one
      State::shutdown more than the synchronous drop; without faults the extra one does nothing (sim_stop).
   4. With the no-panic theorems of NoPanic.v this gives, without further hypotheses on the run: identical worlds for
      Numbers (with and without cleanup), NumbersDirect and Timestamps naming.
   5. Hence the stream / partition theorems of the synchronous families hold for the asynchronous writer as well
      (async_numbers_stream_via_sim, async_numbersdirect_stream, async_numbersdirect_partition, async_timestamps_stream,
      async_numbers_cleanup_partition). *)
Require Import FL.Base.Bytes FL.Base.BytesFacts FL.Base.PathName FL.Fs.Fs FL.Fs.FsFacts FL.Time.Civil FL.Time.TsFormat
  FL.Names.FileSpec FL.Names.NamesFacts FL.Flw.Model FL.Flw.ModelFacts FL.Flw.NumFs FL.Flw.NumInv FL.Flw.Run FL.Flw.RunFacts
  FL.Flw.NumRun FL.Oracles.O_Flw FL.Flw.NumTheorems FL.Flw.NumListing FL.Flw.NumRestart FL.Flw.NumKillRestart
  FL.Flw.NumDInv FL.Flw.NumDRun FL.Flw.NumDTheorems
  FL.Flw.TsCal FL.Flw.TsTime FL.Flw.TsNames FL.Flw.TsInv FL.Flw.TsRun FL.Flw.TsTheorems
  FL.Flw.CleanupFacts FL.Flw.NumCleanupNames FL.Flw.NumCleanupStep FL.Flw.NumCleanupRun FL.Flw.NumCleanup
  FL.Flw.NoPanic FL.Flw.NumAsync.
Open Scope nat_scope.

(* ------------------------------------------------------------------ 1. the state machine ignores the mode *)
Definition sync_of (c : config) : config :=
  {| c_spec := c_spec c; c_append := c_append c; c_cap := c_cap c; c_rot := c_rot c; c_utc := c_utc c;
     c_symlink := c_symlink c; c_bg := c_bg c; c_async := false; c_start := c_start c |}.
Definition set_mode (s : flw) : flw :=
  {| f_cfg := sync_of (f_cfg s); f_inner := f_inner s; f_poisoned := f_poisoned s |}.

Lemma sync_of_sync c : c_async c = false -> sync_of c = c.
Proof. destruct c; cbn. intros ->. reflexivity. Qed.

Ltac mode_norm :=
  unfold initialize, mount_next, init_naming, latest_timestamp_file, creation_ts_of_current, collision_free, index_for_rcurrent,
    cleanup_or_queue, cleanup_impl, open_log_file, do_symlink, infix_from_ts, name_of, fixed_of, starttxt;
  cbn [sync_of c_spec c_append c_cap c_rot c_utc c_symlink c_bg c_start].

Lemma initialize_mode c w : initialize (sync_of c) w = initialize c w.
Proof. mode_norm. reflexivity. Qed.
Lemma mount_next_mode c w st f : mount_next (sync_of c) w st f = mount_next c w st f.
Proof. mode_norm. reflexivity. Qed.

Lemma write_buffer_mode s w b :
  write_buffer (set_mode s) w b = let '(r, w', s', rot) := write_buffer s w b in (r, w', set_mode s', rot).
Proof.
  unfold write_buffer. cbn [set_mode f_cfg f_inner]. rewrite initialize_mode.
  destruct (f_inner s) as [|o wr p].
  - destruct (initialize (f_cfg s) w) as [[i| |] w0]; try reflexivity.
    rewrite mount_next_mode. destruct (mount_next (f_cfg s) w0 i false) as [[r1 w1] st1].
    destruct r1 as [u| |]; try reflexivity; destruct st1 as [|o1 wr1 p1]; try reflexivity;
      destruct (w_write _ wr1 b) as [[ok w3] wr']; destruct ok; reflexivity.
  - rewrite mount_next_mode. destruct (mount_next (f_cfg s) w (Active o wr p) false) as [[r1 w1] st1].
    destruct r1 as [u| |]; try reflexivity; destruct st1 as [|o1 wr1 p1]; try reflexivity;
      destruct (w_write _ wr1 b) as [[ok w3] wr']; destruct ok; reflexivity.
Qed.

Lemma flush_state_mode s w :
  flush_state (set_mode s) w = let '(ok, w', s') := flush_state s w in (ok, w', set_mode s').
Proof.
  unfold flush_state. cbn [set_mode f_inner]. destruct (f_inner s) as [|o wr p]; [reflexivity|].
  destruct (w_flush w wr) as [[ok w1] wr']. reflexivity.
Qed.

Lemma shutdown_state_mode s w :
  shutdown_state (set_mode s) w = let '(w', s') := shutdown_state s w in (w', set_mode s').
Proof.
  unfold shutdown_state, drain_acts. cbn [set_mode f_inner]. destruct (f_inner s) as [|o wr p]; [reflexivity|].
  destruct (w_flush w wr) as [[ok w1] wr']. reflexivity.
Qed.

Lemma drop_state_mode s w : drop_state (set_mode s) w = drop_state s w.
Proof.
  unfold drop_state. rewrite shutdown_state_mode. destruct (shutdown_state s w) as [w1 s1].
  rewrite shutdown_state_mode. destruct (shutdown_state s1 w1) as [w2 s2]. reflexivity.
Qed.

Lemma ensure_start_mode s w : ensure_start (set_mode s) w = set_mode (ensure_start s w).
Proof.
  unfold ensure_start. cbn [set_mode f_cfg sync_of c_spec c_start]. destruct (fts (c_spec (f_cfg s))); [|reflexivity].
  destruct (c_start (f_cfg s)); reflexivity.
Qed.

(* the operations on the state keep the configuration, and poison the state only with a panic *)
Lemma write_buffer_keeps s w b r w' s' rot : write_buffer s w b = (r, w', s', rot) ->
  f_cfg s' = f_cfg s /\ (r <> Panic -> f_poisoned s' = f_poisoned s).
Proof.
  unfold write_buffer.
  assert (G : forall w0 st0, (let '(r1, w1, st1) := mount_next (f_cfg s) w0 st0 false in
      match r1 with
      | Panic => (Panic, w1, poison (with_inner s st1), match st0 with Active (Some rs) _ _ => rotation_necessary w0 (rs_roll rs) | _ => false end)
      | _ => let w2 := match r1 with Err => report ELogFile w1 | _ => w1 end in
             match st1 with
             | Active o_rot wr path =>
               let '(ok, w3, wr') := w_write w2 wr b in
               if ok then (Ok tt, w3, with_inner s (Active (match o_rot with
                        | Some rs => Some {| rs_naming := rs_naming rs; rs_roll := increase_size (rs_roll rs) (N.of_nat (length b));
                                             rs_cleanup := rs_cleanup rs; rs_bg := rs_bg rs |}
                        | None => None end) wr' path), match st0 with Active (Some rs) _ _ => rotation_necessary w0 (rs_roll rs) | _ => false end)
               else (Err, w3, with_inner s (Active o_rot wr' path), match st0 with Active (Some rs) _ _ => rotation_necessary w0 (rs_roll rs) | _ => false end)
             | Initial => (Ok tt, w2, with_inner s st1, match st0 with Active (Some rs) _ _ => rotation_necessary w0 (rs_roll rs) | _ => false end)
             end
      end) = (r, w', s', rot) -> f_cfg s' = f_cfg s /\ (r <> Panic -> f_poisoned s' = f_poisoned s)).
  { intros w0 st0. destruct (mount_next (f_cfg s) w0 st0 false) as [[r1 w1] st1].
    destruct r1 as [u| |]; try (intros E; injection E as <- _ <- _; split; [reflexivity | congruence]);
      (destruct st1 as [|o1 wr1 p1]; [intros E; injection E as <- _ <- _; split; reflexivity|]); cbv zeta;
      destruct (w_write _ wr1 b) as [[ok w3] wr']; destruct ok; intros E; injection E as <- _ <- _; split; reflexivity. }
  destruct (f_inner s) as [|o wr p].
  - destruct (initialize (f_cfg s) w) as [[i| |] w0].
    + apply G.
    + intros E; injection E as <- _ <- _. split; reflexivity.
    + intros E; injection E as <- _ <- _. split; [reflexivity | congruence].
  - apply G.
Qed.

Lemma flush_state_keeps s w ok w' s' : flush_state s w = (ok, w', s') -> f_cfg s' = f_cfg s /\ f_poisoned s' = f_poisoned s.
Proof.
  unfold flush_state. destruct (f_inner s) as [|o wr p]; [intros E; injection E as _ _ <-; split; reflexivity|].
  destruct (w_flush w wr) as [[ok1 w1] wr']. intros E; injection E as _ _ <-. split; reflexivity.
Qed.

Lemma shutdown_state_keeps s w w' s' : shutdown_state s w = (w', s') -> f_cfg s' = f_cfg s /\ f_poisoned s' = f_poisoned s.
Proof.
  unfold shutdown_state. destruct (f_inner s) as [|o wr p]; [intros E; injection E as _ <-; split; reflexivity|].
  destruct (w_flush (drain_acts s w) wr) as [[ok1 w1] wr']. intros E; injection E as _ <-. split; reflexivity.
Qed.

(* without faults a second shutdown does nothing *)
Lemma shutdown_state_idem s w w1 s1 : quiet w -> shutdown_state s w = (w1, s1) -> shutdown_state s1 w1 = (w1, s1).
Proof.
  intros Q. unfold shutdown_state, drain_acts. destruct (f_inner s) as [|o wr p] eqn:Ei.
  - intros E; injection E as <- <-. rewrite Ei. reflexivity.
  - destruct (w_flush_quiet w wr Q) as [w0 [E0 _]]. rewrite E0. intros E; injection E as <- <-.
    cbn [with_inner f_inner]. unfold w_flush. cbn [wino wpend wcap p_write]. destruct o as [rs|]; reflexivity.
Qed.

Lemma drop_after_shutdown s w w1 s1 : quiet w -> shutdown_state s w = (w1, s1) -> drop_state s1 w1 = drop_state s w.
Proof.
  intros Q E. pose proof (shutdown_state_idem s w w1 s1 Q E) as E1. unfold drop_state. rewrite E, !E1. reflexivity.
Qed.

(* ------------------------------------------------------------------ 2. the simulation *)
(* xa: the system with the asynchronous writer, xs: the one with the synchronous writer.  Same world; same state up
   to the mode; the synchronous caller's thread-local buffer is empty; the writer thread runs *)
Definition Sim (xa xs : sys) : Prop :=
  s_w xs = s_w xa /\ s_tl xs = [] /\ s_dead xa = false /\
  exists s, s_flw xa = Some s /\ s_flw xs = Some (set_mode s) /\ c_async (f_cfg s) = true /\ f_poisoned s = false.

(* the caller of the asynchronous writer does not see the rotation flag *)
Definition no_rot (ob : obs) : obs := match ob with ObsRes code _ => ObsRes code false | _ => ob end.

Lemma apply_start_sim xa xs o : Sim xa xs -> Sim (apply_start xa o) (apply_start xs o).
Proof.
  intros [Ew [Et [Hd [s [Ea [Es [Has Hp]]]]]]]. unfold apply_start. rewrite Ea, Es. cbn [set_mode f_poisoned].
  destruct (names_computed o && negb (f_poisoned s)).
  - split; [exact Ew|]. split; [exact Et|]. split; [exact Hd|]. exists (ensure_start s (s_w xa)). cbn [s_flw].
    split; [reflexivity|]. split; [rewrite Ew; fold (set_mode s); rewrite ensure_start_mode; reflexivity|].
    unfold ensure_start. destruct (fts (c_spec (f_cfg s))); [|split; assumption]. destruct (c_start (f_cfg s)); split; assumption.
  - split; [exact Ew|]. split; [exact Et|]. split; [exact Hd|]. exists s. repeat split; assumption.
Qed.

Lemma step_core_sim xa xs o : Sim xa xs -> basic_op o -> obs_ok (snd (step_core xs o)) ->
  Sim (fst (step_core xa o)) (fst (step_core xs o)) /\ snd (step_core xa o) = no_rot (snd (step_core xs o)).
Proof.
  intros [Ew [Et [Hd [s [Ea [Es [Has Hp]]]]]]] Hb. unfold step_core. rewrite Ea, Es. unfold is_async. cbn [set_mode f_cfg sync_of c_async].
  rewrite Has. fold (set_mode s).
  destruct o; try contradiction; cbn [async_step]; unfold async_send; rewrite ?Hd, ?Hp; cbn [sync_step].
  - (* OWrite *)
    rewrite Es, Et, Ew. cbn [set_mode f_poisoned app]. rewrite Hp. fold (set_mode s). rewrite write_buffer_mode.
    unfold async_consume. destruct (write_buffer s (s_w xa) b) as [[[r w1] s1] rot] eqn:E.
    destruct (write_buffer_keeps _ _ _ _ _ _ _ E) as [K1 K2]. cbn [fst snd no_rot obs_ok].
    destruct r as [u| |]; [| |discriminate]; intros _; (split; [|reflexivity]);
      (split; [reflexivity|]; split; [reflexivity|]; split; [reflexivity|]; exists s1; cbn [s_flw];
       split; [reflexivity|]; split; [reflexivity|]; split; [congruence | rewrite K2; [exact Hp | discriminate]]).
  - (* OPlain *)
    rewrite Es, Ew. cbn [set_mode f_poisoned]. rewrite Hp. fold (set_mode s). rewrite write_buffer_mode.
    unfold async_consume. destruct (write_buffer s (s_w xa) b) as [[[r w1] s1] rot] eqn:E.
    destruct (write_buffer_keeps _ _ _ _ _ _ _ E) as [K1 K2]. cbn [fst snd no_rot obs_ok code_of].
    destruct r as [u| |]; [|discriminate|discriminate]. intros _. split; [|reflexivity].
    split; [reflexivity|]. split; [exact Et|]. split; [reflexivity|]. exists s1. cbn [s_flw].
    split; [reflexivity|]. split; [reflexivity|]. split; [congruence | rewrite K2; [exact Hp | discriminate]].
  - (* OFlush *)
    rewrite Es, Ew. cbn [set_mode f_poisoned]. rewrite Hp. fold (set_mode s). rewrite flush_state_mode.
    unfold async_consume. destruct (flush_state s (s_w xa)) as [[ok w1] s1] eqn:E.
    destruct (flush_state_keeps _ _ _ _ _ E) as [K1 K2]. cbn [fst snd no_rot obs_ok].
    destruct ok; [|discriminate]. intros _. split; [|reflexivity].
    split; [reflexivity|]. split; [exact Et|]. split; [reflexivity|]. exists s1. cbn [s_flw].
    split; [reflexivity|]. split; [reflexivity|]. split; congruence.
  - (* OTrigger: executed by the caller in both modes *)
    rewrite Ea, Es, Ew. cbn [set_mode f_poisoned f_cfg f_inner]. rewrite Hp, mount_next_mode.
    destruct (mount_next (f_cfg s) (s_w xa) (f_inner s) true) as [[r w1] st1]. cbn [fst snd no_rot obs_ok code_of].
    destruct r as [u| |]; [|discriminate|discriminate]. intros _. split; [|reflexivity].
    split; [reflexivity|]. split; [exact Et|]. split; [exact Hd|]. exists (with_inner s st1). cbn [s_flw].
    split; [reflexivity|]. split; [reflexivity|]. split; assumption.
  - (* OTick *)
    intros _. cbn [fst snd no_rot]. rewrite Ew. split; [|reflexivity].
    split; [reflexivity|]. split; [exact Et|]. split; [exact Hd|]. exists s. cbn [s_flw]. repeat split; assumption.
  - (* OSnap *)
    intros _. cbn [fst snd]. rewrite Ew. split; [|reflexivity].
    split; [exact Ew|]. split; [exact Et|]. split; [exact Hd|]. exists s. repeat split; assumption.
Qed.

Lemma step_sim xa xs o : Sim xa xs -> basic_op o -> obs_ok (snd (step xs o)) ->
  Sim (fst (step xa o)) (fst (step xs o)) /\ snd (step xa o) = no_rot (snd (step xs o)).
Proof. intros S. unfold step. apply step_core_sim. apply apply_start_sim. exact S. Qed.

Lemma sim_run : forall ops xa xs, Sim xa xs -> Forall basic_op ops -> Forall obs_ok (snd (run xs ops)) ->
  Sim (fst (run xa ops)) (fst (run xs ops)) /\ snd (run xa ops) = List.map no_rot (snd (run xs ops)).
Proof.
  induction ops as [|o r IH]; intros xa xs S Hb K; [split; [exact S | reflexivity]|].
  inversion Hb as [|o' r' Ho Hr]; subst. cbn [run] in *.
  pose proof (step_sim xa xs o S Ho) as St.
  destruct (step xa o) as [xa1 oba]. destruct (step xs o) as [xs1 obs1]. cbn [fst snd] in St.
  specialize (IH xa1 xs1). destruct (run xa1 r) as [xa2 la]. destruct (run xs1 r) as [xs2 ls]. cbn [fst snd] in *.
  inversion K as [|ob' l' K1 K2]; subst. destruct (St K1) as [S1 E1]. destruct (IH S1 Hr K2) as [S2 E2].
  split; [exact S2|]. cbn [List.map]. rewrite E1, E2. reflexivity.
Qed.

(* ------------------------------------------------------------------ 3. dropping the writer *)
Lemma sim_stop xa xs : Sim xa xs -> quiet (s_w xa) ->
  s_w (fst (step xa OStop)) = s_w (fst (step xs OStop))
  /\ s_flw (fst (step xa OStop)) = None /\ s_flw (fst (step xs OStop)) = None
  /\ s_dead (fst (step xa OStop)) = true
  /\ snd (step xa OStop) = ObsRes 0%N false /\ snd (step xs OStop) = ObsRes 0%N false.
Proof.
  intros S Q. pose proof (apply_start_sim xa xs OStop S) as S'.
  assert (Q' : quiet (s_w (apply_start xa OStop))).
  { unfold apply_start. destruct (s_flw xa); [|exact Q]. cbn [names_computed andb]. exact Q. }
  unfold step. revert S' Q'. generalize (apply_start xa OStop) (apply_start xs OStop). clear. intros xa xs S Q.
  destruct S as [Ew [Et [Hd [s [Ea [Es [Has Hp]]]]]]]. unfold step_core. rewrite Ea, Es. unfold is_async.
  cbn [set_mode f_cfg sync_of c_async]. rewrite Has, Hd, Hp. cbn [orb]. fold (set_mode s).
  unfold async_consume. destruct (shutdown_state s (s_w xa)) as [w1 s1] eqn:E.
  destruct (shutdown_state_keeps _ _ _ _ E) as [K1 K2].
  cbn [sync_step s_flw s_w s_tl]. rewrite Es. cbn [set_mode f_poisoned]. rewrite K2, Hp. fold (set_mode s).
  rewrite Ew, drop_state_mode, (drop_after_shutdown s (s_w xa) w1 s1 Q E). cbn [fst snd s_w s_flw s_dead]. repeat split.
Qed.

(* ------------------------------------------------------------------ whole runs, any configuration *)
Lemma sim_start c t0 off : c_async c = true ->
  Sim (fst (step (sys0 t0 off) (OStart c))) (fst (step (sys0 t0 off) (OStart (sync_of c)))).
Proof.
  intros Ha. cbn. split; [reflexivity|]. split; [reflexivity|]. split; [reflexivity|]. exists (new_flw c).
  repeat split. exact Ha.
Qed.

(* HYPOTHESES: the synchronous run returns normal results only (for the four families of NoPanic.v that is a theorem),
   and, for the drop, there are no faults at that point (part of the families' invariants).
   CONCLUSION: after the history, and after the history and the drop, the two worlds are equal; the observations
   agree up to the rotation flag. *)
Theorem async_sim_whole c t0 off ops :
  c_async c = true -> Forall basic_op ops ->
  let ra := run (sys0 t0 off) (OStart c :: ops) in
  let rs := run (sys0 t0 off) (OStart (sync_of c) :: ops) in
  Forall obs_ok (snd rs) ->
  (s_w (fst ra) = s_w (fst rs) /\ snd ra = List.map no_rot (snd rs) /\ s_dead (fst ra) = false)
  /\ (quiet (s_w (fst rs)) ->
      let ra' := run (sys0 t0 off) (OStart c :: ops ++ [OStop]) in
      let rs' := run (sys0 t0 off) (OStart (sync_of c) :: ops ++ [OStop]) in
      s_w (fst ra') = s_w (fst rs') /\ snd ra' = List.map no_rot (snd rs')
      /\ s_flw (fst ra') = None /\ s_dead (fst ra') = true).
Proof.
  intros Ha Hb. cbn zeta. cbn [run]. pose proof (sim_start c t0 off Ha) as S0.
  assert (O0 : snd (step (sys0 t0 off) (OStart c)) = ObsRes 0%N false) by reflexivity.
  assert (O0' : snd (step (sys0 t0 off) (OStart (sync_of c))) = ObsRes 0%N false) by reflexivity.
  destruct (step (sys0 t0 off) (OStart c)) as [xa0 oa0]. destruct (step (sys0 t0 off) (OStart (sync_of c))) as [xs0 os0].
  cbn [fst snd] in S0, O0, O0'. subst oa0 os0. rewrite !run_app.
  pose proof (sim_run ops xa0 xs0 S0 Hb) as SR.
  destruct (run xa0 ops) as [xa1 la]. destruct (run xs0 ops) as [xs1 ls]. cbn [fst snd] in *.
  intros K. inversion K as [|ob' l' K0 K1]; subst. destruct (SR K1) as [S1 E1].
  split.
  - split; [symmetry; apply S1|]. split; [cbn [List.map no_rot]; rewrite E1; reflexivity | apply S1].
  - intros Q. rewrite (proj1 S1) in Q. destruct (sim_stop xa1 xs1 S1 Q) as [Ew [Fa [Fs [Da [Oa Os]]]]].
    cbn [run]. destruct (step xa1 OStop) as [xa2 oa2]. destruct (step xs1 OStop) as [xs2 os2]. cbn [fst snd] in *. subst oa2 os2.
    split; [exact Ew|]. split; [|split; assumption].
    cbn [List.map no_rot]. rewrite E1, map_app. reflexivity.
Qed.

(* the two hypotheses on the synchronous run, from the run after the start *)
Lemma sync_ok_from_start c t0 off ops :
  Forall obs_ok (snd (run (fst (step (sys0 t0 off) (OStart c))) ops)) ->
  quiet (s_w (fst (run (fst (step (sys0 t0 off) (OStart c))) ops))) ->
  Forall obs_ok (snd (run (sys0 t0 off) (OStart c :: ops))) /\ quiet (s_w (fst (run (sys0 t0 off) (OStart c :: ops)))).
Proof.
  cbn [run]. assert (O0 : snd (step (sys0 t0 off) (OStart c)) = ObsRes 0%N false) by reflexivity.
  destruct (step (sys0 t0 off) (OStart c)) as [x0 ob0]. cbn [fst snd] in *. subst ob0.
  destruct (run x0 ops) as [x1 obs1]. cbn [fst snd]. intros K Q. split; [constructor; [reflexivity | exact K] | exact Q].
Qed.

(* under them the two runs go through the same worlds, with and without the final drop *)
Lemma async_worlds c t0 off ops :
  c_async c = true -> Forall basic_op ops ->
  let ra := run (sys0 t0 off) (OStart c :: ops) in
  let rs := run (sys0 t0 off) (OStart (sync_of c) :: ops) in
  let ra' := run (sys0 t0 off) (OStart c :: ops ++ [OStop]) in
  let rs' := run (sys0 t0 off) (OStart (sync_of c) :: ops ++ [OStop]) in
  Forall obs_ok (snd rs) /\ quiet (s_w (fst rs)) ->
  s_w (fst ra) = s_w (fst rs) /\ snd ra = List.map no_rot (snd rs)
  /\ s_w (fst ra') = s_w (fst rs') /\ snd ra' = List.map no_rot (snd rs').
Proof.
  intros Ha Hb. cbn zeta. intros [K Q].
  destruct (async_sim_whole c t0 off ops Ha Hb K) as [[E1 [E2 _]] St]. destruct (St Q) as [E3 [E4 _]].
  repeat split; assumption.
Qed.

(* ------------------------------------------------------------------ 4. the families *)
Lemma numacfg_sync c crit : numacfg c crit -> numcfg (sync_of c) crit /\ c_async c = true.
Proof. intros [H1 [H2 [H3 H4]]]. repeat split; assumption. Qed.

Lemma rel_quiet c crit x a : Rel c crit x a -> quiet (s_w x).
Proof. intros [_ [_ R]]. destruct a as [[cl cu]|]; [destruct R as [wr [roll [_ [I _]]]]; apply I | apply R]. Qed.
Lemma reld_quiet c crit x a : RelD c crit x a -> quiet (s_w x).
Proof. intros [_ [_ R]]. destruct a as [[cl cu]|]; [destruct R as [wr [roll [_ [I _]]]]; apply I | apply R]. Qed.
Lemma relk_quiet c crit k x a : RelK c crit k x a -> quiet (s_w x).
Proof. intros [_ [_ R]]. destruct a as [[cl cu]|]; [destruct R as [wr [roll [_ [I _]]]]; apply I | apply R]. Qed.
Lemma relt_quiet c e lo n x a : RelT c e lo n x a -> quiet (s_w x).
Proof. intros [_ [_ R]]. destruct a as [[cl cu]|]; [destruct R as [keys [wr [roll [ts [_ [I _]]]]]]; apply I | apply R]. Qed.

(* Numbers naming, no cleanup: every criterion, capacity, history of basic operations.  The asynchronous writer and
   the synchronous writer with the same capacity go through the same worlds; as every prefix of a history is a
   history, this holds at every point of the run - in particular the snapshots taken before a flush are the same *)
Theorem async_worlds_numbers c crit t0 off ops :
  numacfg c crit -> Forall basic_op ops ->
  let ra := run (sys0 t0 off) (OStart c :: ops) in
  let rs := run (sys0 t0 off) (OStart (sync_of c) :: ops) in
  let ra' := run (sys0 t0 off) (OStart c :: ops ++ [OStop]) in
  let rs' := run (sys0 t0 off) (OStart (sync_of c) :: ops ++ [OStop]) in
  s_w (fst ra) = s_w (fst rs) /\ snd ra = List.map no_rot (snd rs)
  /\ s_w (fst ra') = s_w (fst rs') /\ snd ra' = List.map no_rot (snd rs').
Proof.
  intros Hcfg Hb. destruct (numacfg_sync c crit Hcfg) as [Hs Ha]. apply (async_worlds c t0 off ops Ha Hb), sync_ok_from_start.
  - exact (run_ok _ crit Hs ops _ None (start_rel _ crit t0 off) Hb).
  - exact (rel_quiet _ _ _ _ (run_rel _ crit Hs ops _ None (start_rel _ crit t0 off) Hb)).
Qed.

Theorem async_worlds_numbersdirect c crit t0 off ops :
  c_async c = true -> numdcfg (sync_of c) crit -> Forall basic_op ops ->
  let ra' := run (sys0 t0 off) (OStart c :: ops ++ [OStop]) in
  let rs' := run (sys0 t0 off) (OStart (sync_of c) :: ops ++ [OStop]) in
  s_w (fst ra') = s_w (fst rs') /\ snd ra' = List.map no_rot (snd rs').
Proof.
  intros Ha Hs Hb. refine (proj2 (proj2 (async_worlds c t0 off ops Ha Hb _))). apply sync_ok_from_start.
  - exact (run_ok_d _ crit Hs ops _ None (start_rel_d _ crit t0 off) Hb).
  - exact (reld_quiet _ _ _ _ (run_rel_d _ crit Hs ops _ None (start_rel_d _ crit t0 off) Hb)).
Qed.

(* Numbers naming with a cleanup strategy (side condition of numbers_cleanup_stream) *)
Theorem async_worlds_numbers_cleanup c crit k t0 off ops :
  c_async c = true -> numkcfg (sync_of c) crit k -> Forall basic_op ops ->
  kside (sync_of c) k (nclosed (a_run None ops (snd (run (fst (step (sys0 t0 off) (OStart (sync_of c)))) ops)))) ->
  let ra' := run (sys0 t0 off) (OStart c :: ops ++ [OStop]) in
  let rs' := run (sys0 t0 off) (OStart (sync_of c) :: ops ++ [OStop]) in
  s_w (fst ra') = s_w (fst rs') /\ snd ra' = List.map no_rot (snd rs').
Proof.
  intros Ha Hs Hb Hside. refine (proj2 (proj2 (async_worlds c t0 off ops Ha Hb _))). apply sync_ok_from_start.
  - exact (run_ok_k _ crit k Hs ops _ None (start_rel_k _ crit k t0 off) Hb Hside).
  - exact (relk_quiet _ _ _ _ _ (run_rel_k _ crit k Hs ops _ None (start_rel_k _ crit k t0 off) Hb Hside)).
Qed.

(* Timestamps naming (hypotheses of timestamps_stream) *)
Theorem async_worlds_timestamps c crit t0 off ops :
  c_async c = true -> tscfg (sync_of c) crit -> tag_ok (sync_of c) -> Forall basic_op ops -> Forall tick_ok ops ->
  (0 <= t0 + ts_e (sync_of c) off)%Z -> (t0 + elapsed ops + ts_e (sync_of c) off < sec_max)%Z -> (N.of_nat (length ops) <= usize_max)%N ->
  let ra' := run (sys0 t0 off) (OStart c :: ops ++ [OStop]) in
  let rs' := run (sys0 t0 off) (OStart (sync_of c) :: ops ++ [OStop]) in
  s_w (fst ra') = s_w (fst rs') /\ snd ra' = List.map no_rot (snd rs').
Proof.
  intros Ha Hs T Hb Htk Hlo Hhi Hmax. refine (proj2 (proj2 (async_worlds c t0 off ops Ha Hb _))). apply sync_ok_from_start.
  - exact (run_ok_ts _ crit _ _ _ Hs T (conj Hlo Hhi) ops _ None 0 (start_rel_ts _ t0 off) Hb Htk (Z.le_refl _) Hmax).
  - exact (relt_quiet _ _ _ _ _ _ (proj1 (run_rel_ts _ crit _ _ _ Hs T (conj Hlo Hhi) ops _ None 0 (start_rel_ts _ t0 off) Hb Htk (Z.le_refl _) Hmax))).
Qed.

(* ------------------------------------------------------------------ 5. the theorems of the synchronous families, transferred
   The hypothesis  Xcfg (sync_of c) crit  says: c is a configuration of the family but for the mode.  The views
   (reads, direct_view, ts_view) mention the configuration only through the file names, which do not depend on the mode:
   "view (sync_of c)" and "view c" are convertible. *)
Theorem async_numbers_stream_via_sim c crit t0 off ops :
  numacfg c crit -> Forall basic_op ops ->
  exists files, reads c (wfs (s_w (fst (run (sys0 t0 off) (OStart c :: ops ++ [OStop]))))) files
    /\ concat files = written ops.
Proof.
  intros Hcfg Hb. destruct (async_worlds_numbers c crit t0 off ops Hcfg Hb) as [_ [_ [E _]]]. cbn zeta in E. rewrite E.
  change (reads c) with (reads (sync_of c)). apply (numbers_stream (sync_of c) crit); [apply numacfg_sync; exact Hcfg | exact Hb].
Qed.

Theorem async_numbersdirect_stream c crit t0 off ops :
  c_async c = true -> numdcfg (sync_of c) crit -> Forall basic_op ops ->
  exists files, direct_view c (wfs (s_w (fst (run (sys0 t0 off) (OStart c :: ops ++ [OStop]))))) files
    /\ concat files = written ops.
Proof.
  intros Ha Hs Hb. destruct (async_worlds_numbersdirect c crit t0 off ops Ha Hs Hb) as [E _]. cbn zeta in E. rewrite E.
  change (direct_view c) with (direct_view (sync_of c)). apply (numbersdirect_stream (sync_of c) crit); assumption.
Qed.

Theorem async_numbersdirect_partition c m t0 off ops :
  c_async c = true -> numdcfg (sync_of c) (CSize m) -> Forall basic_op ops ->
  direct_view c (wfs (s_w (fst (run (sys0 t0 off) (OStart c :: ops ++ [OStop]))))) (expected_files m None (items false ops)).
Proof.
  intros Ha Hs Hb. destruct (async_worlds_numbersdirect c (CSize m) t0 off ops Ha Hs Hb) as [E _]. cbn zeta in E. rewrite E.
  change (direct_view c) with (direct_view (sync_of c)). apply (numbersdirect_partition (sync_of c) m); assumption.
Qed.

Theorem async_timestamps_stream c crit t0 off ops :
  c_async c = true -> tscfg (sync_of c) crit -> tag_ok c -> Forall basic_op ops -> Forall tick_ok ops ->
  (0 <= t0 + ts_e c off)%Z -> (t0 + elapsed ops + ts_e c off < sec_max)%Z -> (N.of_nat (length ops) <= usize_max)%N ->
  let f := wfs (s_w (fst (run (sys0 t0 off) (OStart c :: ops ++ [OStop])))) in
  (names f = [] /\ written ops = [])
  \/ exists keys closed cur,
       ts_view c (ts_e c off) f keys closed cur
       /\ concat closed ++ cur = written ops
       /\ keys_ok keys.
Proof.
  intros Ha Hs T Hb Htk Hlo Hhi Hmax. cbn zeta.
  destruct (async_worlds_timestamps c crit t0 off ops Ha Hs T Hb Htk Hlo Hhi Hmax) as [E _]. cbn zeta in E. rewrite E.
  pose proof (timestamps_stream (sync_of c) crit t0 off ops Hs T Hb Htk Hlo Hhi Hmax) as H. cbn zeta in H.
  destruct H as [H|[keys [closed [cur H]]]]; [left; exact H|]. right. exists keys, closed, cur.
  destruct H as [V [F [K _]]]. split; [exact V|]. split; assumption.
Qed.

Theorem async_numbers_cleanup_partition c k m t0 off ops :
  c_async c = true -> numkcfg (sync_of c) (CSize m) k -> Forall basic_op ops ->
  kside (sync_of c) k (nclosed (s_run m None ops)) ->
  let f := wfs (s_w (fst (run (sys0 t0 off) (OStart c :: ops ++ [OStop])))) in
  match s_run m None ops with
  | None => names f = []
  | Some (closed, cur) =>
    closed ++ [cur] = expected_files m None (items false ops)
    /\ kreader_view (sync_of c) f closed cur (k_lo k (length closed)) (k_mid k (length closed))
  end.
Proof.
  intros Ha Hs Hb Hside. cbn zeta.
  pose proof (numbers_cleanup_partition (sync_of c) k m t0 off ops Hs Hb Hside) as H. cbn zeta in H.
  assert (Hside' : kside (sync_of c) k (nclosed (a_run None ops (snd (run (fst (step (sys0 t0 off) (OStart (sync_of c)))) ops))))).
  { pose proof (start_rel_k (sync_of c) (CSize m) k t0 off) as R0.
    rewrite (run_size_k' (sync_of c) k m Hs ops _ None R0 Hb Hside). exact Hside. }
  destruct (async_worlds_numbers_cleanup c (CSize m) k t0 off ops Ha Hs Hb Hside') as [E _]. cbn zeta in E. rewrite E.
  exact H.
Qed.

Print Assumptions async_sim_whole.
Print Assumptions async_worlds_numbers.
Print Assumptions async_worlds_numbersdirect.
Print Assumptions async_worlds_numbers_cleanup.
Print Assumptions async_worlds_timestamps.
Print Assumptions async_numbers_stream_via_sim.
Print Assumptions async_numbersdirect_stream.
Print Assumptions async_numbersdirect_partition.
Print Assumptions async_timestamps_stream.
Print Assumptions async_numbers_cleanup_partition.

(* ------------------------------------------------------------------ examples *)
Section Examples.
Open Scope N_scope.
Example ex_sync_of : sync_of ex_async = ex_buffered /\ sync_of ex_async_unbuffered = ex_direct.
Proof. split; reflexivity. Qed.

(* instance of async_worlds_numbers: hypotheses, and the conclusion for the history of NumAsync.v *)
Example ex_worlds_instance :
  let ra' := run (sys0 0 0) (OStart ex_async :: ex_hist ++ [OStop]) in
  let rs' := run (sys0 0 0) (OStart ex_buffered :: ex_hist ++ [OStop]) in
  s_w (fst ra') = s_w (fst rs') /\ snd ra' = List.map no_rot (snd rs').
Proof.
  destruct (async_worlds_numbers ex_async (CSize 3) 0 0 ex_hist) as [_ [_ [E1 E2]]];
    [repeat split | repeat constructor | split; assumption].
Qed.

(* the hypothesis "the synchronous run returns normal results" of sim_run / async_sim_whole cannot be dropped:
   with an injected fault (OSetFaults is not a basic operation) the failing raw write is returned to the caller by the
   synchronous handle (code 1, nothing on the error channel), whereas the asynchronous caller gets Ok and the writer
   thread reports the failure on the error channel; likewise for a failing flush *)
Definition ex_hist_fault : list op := [OWrite [1;10]; OSetFaults [true]; OPlain [2]; OFlush].
Example ex_fault_write :
  (werrs (s_w (fst (run (sys0 0 0) (OStart ex_async_unbuffered :: ex_hist_fault)))),
   snd (run (sys0 0 0) (OStart ex_async_unbuffered :: ex_hist_fault)))
  = ([EWrite], [ObsRes 0 false; ObsRes 0 false; ObsRes 0 false; ObsRes 0 false; ObsRes 0 false])
  /\ (werrs (s_w (fst (run (sys0 0 0) (OStart ex_direct :: ex_hist_fault)))),
      snd (run (sys0 0 0) (OStart ex_direct :: ex_hist_fault)))
  = ([], [ObsRes 0 false; ObsRes 0 false; ObsRes 0 false; ObsRes 1 false; ObsRes 0 false]).
Proof. split; vm_compute; reflexivity. Qed.

Definition ex_hist_fault_flush : list op := [OWrite [1;10]; OSetFaults [true]; OFlush].
Example ex_fault_flush :
  (werrs (s_w (fst (run (sys0 0 0) (OStart ex_async :: ex_hist_fault_flush)))),
   snd (run (sys0 0 0) (OStart ex_async :: ex_hist_fault_flush)))
  = ([EFlush], [ObsRes 0 false; ObsRes 0 false; ObsRes 0 false; ObsRes 0 false])
  /\ (werrs (s_w (fst (run (sys0 0 0) (OStart ex_buffered :: ex_hist_fault_flush)))),
      snd (run (sys0 0 0) (OStart ex_buffered :: ex_hist_fault_flush)))
  = ([], [ObsRes 0 false; ObsRes 0 false; ObsRes 0 false; ObsRes 1 false]).
Proof. split; vm_compute; reflexivity. Qed.
End Examples.
