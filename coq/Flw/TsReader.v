(* Timestamps naming: the reader order of Oracles/ReaderOrder.v (time stamp, then restart counter, rCURRENT last), applied
   to the snapshot of the directory that a stopped writer leaves, is the order in which the files were closed.
   The part before Section Reader does not depend on the naming and serves TimestampsDirect as well (TsdTheorems.v). *)
Require Import FL.Base.Bytes FL.Base.BytesFacts FL.Base.PathName FL.Fs.Fs FL.Fs.FsFacts FL.Time.Civil FL.Time.TsFormat
  FL.Names.FileSpec FL.Names.NamesFacts FL.Names.SortFacts FL.Names.FamilyFacts FL.Flw.Model FL.Flw.ModelFacts FL.Flw.NumFs
  FL.Flw.NumInv FL.Flw.Run FL.Flw.NumRun FL.Oracles.O_Flw FL.Oracles.ReaderOrder FL.Flw.NumTheorems FL.Flw.NumListing FL.Flw.NumRestart
  FL.Flw.TsCal FL.Flw.TsTime FL.Flw.TsMono FL.Flw.TsNames FL.Flw.TsInv FL.Flw.TsRun FL.Flw.TsTheorems.
From Coq Require Import Sorted.
Open Scope nat_scope.

(* ------------------------------------------------------------------ insertion sort of keyed entries *)
Section Sorting.
Variable A : Type.
Variable nm_of : rkey * A -> bytes.
Definition before (a b : rkey * A) : Prop := key_lt (fst a) (fst b) = true /\ key_lt (fst b) (fst a) = false.

Lemma insert_filter L : StronglySorted before L -> NoDup (List.map nm_of L) ->
  forall x P, In x L -> P (nm_of x) = false ->
  insert_key x (filter (fun a => P (nm_of a)) L) = filter (fun a => P (nm_of a) || beq (nm_of a) (nm_of x)) L.
Proof.
  induction 1 as [|y L' HS IH HF]; intros ND x P Hin HP; [destruct Hin|].
  cbn [List.map] in ND. apply NoDup_cons_iff in ND. destruct ND as [Hy ND].
  assert (Hother : forall a, In a L' -> beq (nm_of a) (nm_of y) = false).
  { intros a Ia. apply beq_neq. intros E. apply Hy. rewrite <- E. apply in_map. exact Ia. }
  destruct Hin as [<-|Hin].
  - cbn [filter]. rewrite HP, beq_refl. cbn [orb].
    assert (E : filter (fun a => P (nm_of a) || beq (nm_of a) (nm_of y)) L' = filter (fun a => P (nm_of a)) L').
    { apply filter_ext_in. intros a Ia. rewrite (Hother a Ia), orb_false_r. reflexivity. }
    rewrite E. destruct (filter (fun a => P (nm_of a)) L') as [|h r] eqn:Ef; [reflexivity|].
    assert (Ih : In h L'). { assert (X : In h (h :: r)) by (left; reflexivity). rewrite <- Ef in X. apply filter_In in X. apply X. }
    rewrite Forall_forall in HF. destruct (HF h Ih) as [_ Hlt]. cbn [insert_key]. rewrite Hlt. reflexivity.
  - assert (Hxy : beq (nm_of y) (nm_of x) = false).
    { rewrite beq_sym. apply Hother. exact Hin. }
    rewrite Forall_forall in HF. destruct (HF x Hin) as [Hlt _].
    cbn [filter]. rewrite Hxy, orb_false_r. destruct (P (nm_of y)).
    + cbn [insert_key]. rewrite Hlt. rewrite (IH ND x P Hin HP). reflexivity.
    + apply (IH ND x P Hin HP).
Qed.

Lemma sort_keys_filter L : StronglySorted before L -> NoDup (List.map nm_of L) ->
  forall l, (forall x, In x l -> In x L) -> NoDup (List.map nm_of l) ->
  sort_keys l = filter (fun a => existsb (beq (nm_of a)) (List.map nm_of l)) L.
Proof.
  intros HS ND. induction l as [|x l IH]; intros Hsub NDl.
  - cbn [sort_keys fold_right List.map existsb]. clear. induction L as [|y L' IHL]; [reflexivity | exact IHL].
  - cbn [List.map] in NDl. apply NoDup_cons_iff in NDl. destruct NDl as [Hx NDl].
    change (sort_keys (x :: l)) with (insert_key x (sort_keys l)).
    rewrite IH by (auto; intros y Iy; apply Hsub; right; exact Iy).
    rewrite (insert_filter L HS ND x (fun n => existsb (beq n) (List.map nm_of l))).
    + apply filter_ext. intros a. cbn [List.map existsb]. apply orb_comm.
    + apply Hsub. left. reflexivity.
    + destruct (existsb (beq (nm_of x)) (List.map nm_of l)) eqn:E; [|reflexivity]. exfalso. apply Hx.
      apply existsb_exists in E. destruct E as [n [In_ En]]. apply beq_eq in En. subst n. exact In_.
Qed.

Lemma filter_true_all {B} (p : B -> bool) l : (forall x, In x l -> p x = true) -> filter p l = l.
Proof. induction l as [|x l IH]; intros H; cbn [filter]; [reflexivity|]. rewrite (H x (or_introl eq_refl)), IH; [reflexivity|].
  intros y Iy. apply H. right. exact Iy. Qed.

(* a list of distinct members of a strictly sorted list L that covers L is sorted into L *)
Lemma sort_keys_target L l : StronglySorted before L -> NoDup (List.map nm_of L) ->
  (forall x, In x l -> In x L) -> NoDup (List.map nm_of l) -> (forall a, In a L -> In (nm_of a) (List.map nm_of l)) ->
  sort_keys l = L.
Proof.
  intros HS ND Hsub NDl Hall. rewrite (sort_keys_filter L HS ND l Hsub NDl).
  apply filter_true_all. intros a Ia. apply existsb_exists. exists (nm_of a). split; [apply Hall, Ia | apply beq_refl].
Qed.
End Sorting.

(* ------------------------------------------------------------------ the reader's keys of the names *)
Definition rk (e : Z) (k : key) : rkey :=
  {| k_cur := false; k_main := tsx e (fst k); k_restart := match snd k with O => None | S m => Some (N.of_nat m) end |}.
Definition rcur : rkey := {| k_cur := true; k_main := cur_infix; k_restart := None |}.

Lemma key_of_cur : key_of (Some cur_infix) cur_infix = rcur.
Proof. vm_compute. reflexivity. Qed.

Lemma key_of_rotated cur e k : in_years e (fst k) -> cur <> Some (infix_of e k) -> key_of cur (infix_of e k) = rk e k.
Proof.
  intros H Hcur. unfold key_of, rk.
  assert (Ecur : match cur with Some c => beq (infix_of e k) c | None => false end = false).
  { destruct cur as [c|]; [|reflexivity]. apply beq_neq. intros E. apply Hcur. rewrite E. reflexivity. }
  assert (Hc : contains restart_tag (tsx e (fst k)) = false) by (apply no_dot_no_tag; exact (tsx_no_dot e _ H)).
  unfold infix_of in *. destruct (snd k) as [|m].
  - unfold split_restart. apply contains_false_iff in Hc. rewrite Hc, Ecur. reflexivity.
  - unfold split_restart, restart_infix in *. rewrite (sk_find_tag_app _ _ Hc), sk_firstn_app, sk_skipn_app, skipn_length_app, Ecur.
    unfold pad_left. rewrite dec_value_zeros, dec_value_dec. reflexivity.
Qed.

Lemma key_of_infix e k : in_years e (fst k) -> key_of (Some cur_infix) (infix_of e k) = rk e k.
Proof. intros H. apply key_of_rotated; [exact H|]. intros E. injection E as E. exact (infix_of_not_cur e k H (eq_sym E)). Qed.

Lemma shortlex_tsx e t t' : in_years e t -> in_years e t' -> shortlex_lt (tsx e t) (tsx e t') = lex_lt (tsx e t) (tsx e t').
Proof. intros H H'. unfold shortlex_lt. rewrite !tsx_length by assumption. reflexivity. Qed.

Lemma rk_lt e k k' : in_years e (fst k) -> in_years e (fst k') -> klt k k' ->
  key_lt (rk e k) (rk e k') = true /\ key_lt (rk e k') (rk e k) = false.
Proof.
  intros H H' L. unfold key_lt, rk. cbn [k_cur k_main k_restart]. rewrite !shortlex_tsx by assumption.
  destruct L as [L|[Et L]].
  - pose proof (tsx_mono e _ _ H H' L) as M. rewrite M, (lex_lt_asym _ _ M). cbn [orb]. split; [reflexivity|].
    assert (N0 : tsx e (fst k') <> tsx e (fst k)) by (intros E; rewrite E, lex_lt_irrefl in M; discriminate).
    rewrite (beq_neq _ _ N0). reflexivity.
  - rewrite Et, lex_lt_irrefl, beq_refl. cbn [orb andb]. unfold restart_lt.
    destruct (snd k) as [|a], (snd k') as [|b]; lia.
Qed.

Lemma rk_cur e k : key_lt (rk e k) rcur = true /\ key_lt rcur (rk e k) = false.
Proof. split; reflexivity. Qed.

(* ------------------------------------------------------------------ names are read back by the reader *)
(* the family's suffix does not itself end with ".gz" (the reader takes a trailing ".gz" for the mark of a compressed file) *)
Definition not_gz (c : config) : Prop :=
  match fsfx (c_spec c) with Some s => strip_suffix (dot :: gz_sfx) (dot :: s) = None | None => True end.

Lemma tsx_ends_digit e t : in_years e t -> exists X D, tsx e t = X ++ D /\ D <> [] /\ all_digits D = true.
Proof.
  intros H. destruct (tsx_text e t H) as [-> Ok]. unfold std_text.
  exists (114%N :: pad_dec 4 (cy (civil_of (t + e))) ++ 45%N :: pad_dec 2 (cmo (civil_of (t + e))) ++ 45%N :: pad_dec 2 (cd (civil_of (t + e)))
          ++ 95%N :: pad_dec 2 (ch (civil_of (t + e))) ++ 45%N :: pad_dec 2 (cmi (civil_of (t + e))) ++ [45%N]),
         (pad_dec 2 (cs (civil_of (t + e)))).
  split; [|split; [|apply pad_dec_digits]].
  - repeat (rewrite <- app_assoc || rewrite <- app_comm_cons). reflexivity.
  - unfold pad_dec, pad_left. intros E. apply app_eq_nil in E. exact (dec_nonempty _ (proj2 E)).
Qed.

Lemma infix_ends_digit e k : in_years e (fst k) -> exists X D, infix_of e k = X ++ D /\ D <> [] /\ all_digits D = true.
Proof.
  intros H. unfold infix_of. destruct (snd k) as [|m]; [apply tsx_ends_digit; exact H|].
  exists (tsx e (fst k) ++ restart_tag), (restart_digits (N.of_nat m)). unfold restart_infix. rewrite <- app_assoc.
  split; [reflexivity|]. split; [apply restart_digits_nonempty | apply restart_digits_all].
Qed.

Lemma full_infix_kname c e k : not_gz c -> in_years e (fst k) ->
  full_infix (c_spec c) (fixed0 c) (kname c e k) = Some (infix_of e k).
Proof.
  intros G H. unfold kname, nm. apply full_infix_as_name_parts; [apply infix_of_nonempty; exact H|].
  unfold not_gz in G. destruct (fsfx (c_spec c)); [exact G|].
  destruct (infix_ends_digit e k H) as [X [D [-> [Hne Hd]]]]. apply sk_gz_digits; assumption.
Qed.

Lemma full_infix_cname c : not_gz c -> full_infix (c_spec c) (fixed0 c) (cname c) = Some cur_infix.
Proof.
  intros G. unfold cname, nm. apply full_infix_as_name_parts; [apply cur_infix_nonempty|].
  unfold not_gz in G. destruct (fsfx (c_spec c)); [exact G | vm_compute; reflexivity].
Qed.

(* ------------------------------------------------------------------ sorted names *)
Lemma insert_name_in' x l y : In y (insert_name x l) <-> y = x \/ In y l.
Proof. induction l as [|z l IH]; cbn [insert_name]; [cbn; intuition|]. destruct (lex_le x z); cbn [In]; [intuition|]. rewrite IH. intuition. Qed.
Lemma sort_names_in' l y : In y (sort_names l) <-> In y l.
Proof. induction l as [|x l IH]; cbn [sort_names fold_right]; [tauto|]. fold (sort_names l). rewrite insert_name_in', IH. cbn [In]. intuition. Qed.
Lemma insert_name_nodup x l : ~ In x l -> NoDup l -> NoDup (insert_name x l).
Proof.
  induction l as [|z l IH]; intros Hx ND; cbn [insert_name]; [constructor; [intros []|constructor]|].
  destruct (lex_le x z); [constructor; assumption|].
  apply NoDup_cons_iff in ND. destruct ND as [Hz ND]. constructor.
  - rewrite insert_name_in'. intros [->|I]; [apply Hx; left; reflexivity | exact (Hz I)].
  - apply IH; [intros I; apply Hx; right; exact I | exact ND].
Qed.
Lemma sort_names_nodup l : NoDup l -> NoDup (sort_names l).
Proof.
  induction 1 as [|x l Hx ND IH]; [constructor|]. cbn [sort_names fold_right]. fold (sort_names l).
  apply insert_name_nodup; [rewrite sort_names_in'; exact Hx | exact IH].
Qed.

(* ------------------------------------------------------------------ the snapshot of the directory, in reader order *)
Definition snap_entry (f : fs) (n : bytes) : entry :=
  match file_of f n with Some fl => (n, (if fdir fl then 3 else fgz fl)%N, fdata fl) | None => (n, 0%N, []) end.
Definition snap_list (f : fs) : list entry := List.map (snap_entry f) (sort_names (dir_names f)).
Lemma snap_of_list x : snap_of x = snap_list (wfs (s_w x)).
Proof. reflexivity. Qed.

Definition ename (a : rkey * entry) : bytes := fst (fst (snd a)).

(* tl: the current file under rCURRENT naming, nothing under direct naming *)
Fixpoint target (c : config) (e : Z) (tl : list (rkey * entry)) (keys : list key) (files : list bytes) : list (rkey * entry) :=
  match keys, files with
  | k :: ks, d :: ds => (rk e k, (kname c e k, 0%N, d)) :: target c e tl ks ds
  | _, _ => tl
  end.

Lemma target_contents c e tl : forall keys files, length keys = length files ->
  contents (List.map snd (target c e tl keys files)) = files ++ contents (List.map snd tl).
Proof.
  induction keys as [|k ks IH]; intros [|d ds] Hl; try discriminate; [reflexivity|].
  cbn [target List.map snd app]. unfold contents in *. cbn [List.map snd]. rewrite IH by (injection Hl as Hl; exact Hl). reflexivity.
Qed.

Lemma target_in c e tl : forall keys files a, length keys = length files ->
  (In a (target c e tl keys files) <->
   In a tl \/ exists i, i < length files /\ a = (rk e (nth i keys kd), (kname c e (nth i keys kd), 0%N, nth i files []))).
Proof.
  induction keys as [|k ks IH]; intros [|d ds] a Hl; try discriminate.
  - cbn [target length]. split; [intros I; left; exact I | intros [I|[i [Hi _]]]; [exact I | lia]].
  - injection Hl as Hl. cbn [target In length]. rewrite (IH ds a Hl). split.
    + intros [<-|[I|[i [Hi ->]]]]; [right; exists 0; split; [lia | reflexivity] | left; exact I | right; exists (S i); split; [lia | reflexivity]].
    + intros [I|[i [Hi ->]]]; [right; left; exact I|]. destruct i as [|i]; [left; reflexivity | right; right; exists i; split; [lia | reflexivity]].
Qed.

Lemma sorted_nodup (L : list (rkey * entry)) : StronglySorted (before entry) L ->
  (forall a b, In a L -> In b L -> ename a = ename b -> fst a = fst b) -> NoDup (List.map ename L).
Proof.
  induction 1 as [|y L' HS IH HF]; intros Hinj; [constructor|]. cbn [List.map]. constructor.
  - intros I. apply in_map_iff in I. destruct I as [b [Eb Ib]]. rewrite Forall_forall in HF. destruct (HF b Ib) as [H1 H2].
    rewrite (Hinj b y (or_intror Ib) (or_introl eq_refl) Eb) in H1. rewrite (Hinj b y (or_intror Ib) (or_introl eq_refl) Eb) in H2. congruence.
  - apply IH. intros a b Ia Ib. apply Hinj; right; assumption.
Qed.

Lemma target_sorted c e tl : StronglySorted (before entry) tl ->
  (forall k a, In a tl -> key_lt (rk e k) (fst a) = true /\ key_lt (fst a) (rk e k) = false) ->
  forall ks ds, length ks = length ds ->
  (forall i j, i < j < length ks -> klt (nth i ks kd) (nth j ks kd)) -> (forall k, In k ks -> in_years e (fst k)) ->
  StronglySorted (before entry) (target c e tl ks ds).
Proof.
  intros St Ht. induction ks as [|k ks IH]; intros [|d ds] Hl Hs Hy; try discriminate; [exact St|].
  injection Hl as Hl. cbn [target]. constructor.
  - apply IH; [exact Hl | | intros k' Ik; apply Hy; right; exact Ik].
    intros i j Hij. apply (Hs (S i) (S j)). cbn [length]. lia.
  - apply Forall_forall. intros a Ia. apply (target_in c e tl ks ds a Hl) in Ia. destruct Ia as [I|[i [Hi ->]]].
    + exact (Ht k a I).
    + unfold before. cbn [fst]. apply rk_lt; [apply Hy; left; reflexivity | apply Hy; right; apply nth_In; lia |].
      apply (Hs 0 (S i)). cbn [length]. lia.
Qed.

Definition fam (sp : file_spec) (fixed n : bytes) : bytes := match full_infix sp fixed n with Some i => i | None => [] end.

Lemma family_entries_map sp fixed cur f : forall ns,
  (forall n, In n ns -> exists d i, snap_entry f n = (n, 0%N, d) /\ full_infix sp fixed n = Some i) ->
  family_entries sp fixed cur (List.map (snap_entry f) ns) = List.map (fun n => (key_of cur (fam sp fixed n), snap_entry f n)) ns.
Proof.
  induction ns as [|n ns IH]; intros H; [reflexivity|]. cbn [List.map family_entries].
  destruct (H n (or_introl eq_refl)) as [d [i [Es Ef]]]. rewrite Es. change (0 <? 2)%N with true. cbv iota. unfold fam at 1. rewrite Ef.
  rewrite IH by (intros m Im; apply H; right; exact Im). reflexivity.
Qed.

Lemma snap_entry_name f n : fst (fst (snap_entry f n)) = n.
Proof. unfold snap_entry. destruct (file_of f n); reflexivity. Qed.

Lemma plain_entry f n j d : lookup f n = Some j -> plain (inode f j) -> content f j = d -> snap_entry f n = (n, 0%N, d).
Proof. intros Lj [Pg Pd] <-. unfold snap_entry, file_of. rewrite Lj, Pd, Pg. reflexivity. Qed.

Lemma reader_order_target sp fixed curi f (L : list (rkey * entry)) :
  StronglySorted (before entry) L ->
  (forall a b, In a L -> In b L -> ename a = ename b -> fst a = fst b) ->
  NoDup (dir_names f) ->
  (forall n, In n (dir_names f) ->
     exists i d, full_infix sp fixed n = Some i /\ snap_entry f n = (n, 0%N, d) /\ In (key_of curi i, (n, 0%N, d)) L) ->
  (forall a, In a L -> In (ename a) (dir_names f)) ->
  reader_order sp fixed curi (snap_list f) = List.map snd L.
Proof.
  intros HS Hinj ND Hent Hcov. unfold reader_order, snap_list.
  set (ns := sort_names (dir_names f)).
  assert (Hns : forall n, In n ns -> In n (dir_names f)) by (intros n; apply sort_names_in').
  rewrite (family_entries_map sp fixed curi f ns).
  2:{ intros n In_. destruct (Hent n (Hns n In_)) as [i [d [Ef [Es _]]]]. eauto. }
  set (l := List.map (fun n => (key_of curi (fam sp fixed n), snap_entry f n)) ns).
  assert (Enames : List.map ename l = ns).
  { unfold l. rewrite map_map. unfold ename. cbn [snd]. rewrite <- (map_id ns) at 2. apply map_ext. intros n. apply snap_entry_name. }
  f_equal. apply (sort_keys_target entry ename L l HS).
  - apply sorted_nodup; assumption.
  - intros x Ix. unfold l in Ix. apply in_map_iff in Ix. destruct Ix as [n [<- In_]].
    destruct (Hent n (Hns n In_)) as [i [d [Ef [Es IL]]]]. unfold fam. rewrite Ef, Es. exact IL.
  - rewrite Enames. apply sort_names_nodup. exact ND.
  - intros a Ia. rewrite Enames. apply sort_names_in'. exact (Hcov a Ia).
Qed.

Section Reader.
Variables (c : config) (crit : criterion) (e lo hi : Z) (f : fs) (keys : list key) (closed : list bytes) (cur : bytes).
Hypothesis Hcfg : tscfg c crit.
Hypothesis G : not_gz c.
Hypothesis Y : years_ok e lo hi.
Hypothesis Rg : forall k, In k keys -> (lo <= fst k <= hi)%Z.
Hypothesis K : keys_ok keys.
Hypothesis V : ts_view c e f keys closed cur.

Let Hlen : length keys = length closed. Proof. apply V. Qed.
Let Yk : forall k, In k keys -> in_years e (fst k).
Proof. intros k Ik. apply (years_in e lo hi _ Y). apply Rg, Ik. Qed.
Let Yi : forall i, i < length closed -> in_years e (fst (nth i keys kd)).
Proof. intros i Hi. apply Yk, nth_In. rewrite Hlen. exact Hi. Qed.

Let sp := c_spec c.
Let fixed := fixed0 c.
Let L := target c e [(rcur, (cname c, 0%N, cur))] keys closed.

(* what the snapshot says about a name of the directory *)
Lemma entry_of_name n : In n (dir_names f) ->
  (n = cname c /\ snap_entry f n = (n, 0%N, cur) /\ full_infix sp fixed n = Some cur_infix)
  \/ (exists i, i < length closed /\ n = kname c e (nth i keys kd) /\ snap_entry f n = (n, 0%N, nth i closed [])
                /\ full_infix sp fixed n = Some (infix_of e (nth i keys kd))).
Proof.
  intros I. apply dir_names_lookup in I. destruct I as [j Lj].
  destruct V as [_ [Hcl [[jc [Lc [Pc Cc]]] [Hon _]]]].
  destruct (Hon n j Lj) as [->|[i [Hi ->]]].
  - left. split; [reflexivity|]. split; [exact (plain_entry f _ _ _ Lc Pc Cc) | apply full_infix_cname; exact G].
  - right. exists i. split; [exact Hi|]. split; [reflexivity|]. destruct (Hcl i Hi) as [j' [Lj' [Pj Cj]]].
    split; [exact (plain_entry f _ _ _ Lj' Pj Cj) | apply full_infix_kname; [exact G | apply Yi; exact Hi]].
Qed.

Theorem ts_reader_order : family_in_order c (snap_list f) = closed ++ [cur].
Proof.
  unfold family_in_order.
  assert (Ec : cur_infix_of c = Some cur_infix) by (unfold cur_infix_of; rewrite (proj1 Hcfg); reflexivity).
  rewrite Ec. change (fixed_name_part (c_spec c) []) with fixed. fold sp.
  rewrite (reader_order_target sp fixed (Some cur_infix) f L); [exact (target_contents c e _ keys closed Hlen) | | | apply V | |].
  - apply target_sorted; [repeat constructor | intros k a [<-|[]]; exact (rk_cur e k) | exact Hlen | exact (keys_sorted keys K) | exact Yk].
  - intros a b Ia Ib E.
    apply (target_in c e _ keys closed a Hlen) in Ia. apply (target_in c e _ keys closed b Hlen) in Ib.
    destruct Ia as [[<-|[]]|[i [Hi ->]]], Ib as [[<-|[]]|[j [Hj ->]]]; unfold ename in E; cbn [fst snd] in E |- *.
    + reflexivity.
    + exfalso. exact (kname_not_cname c e _ (Yi j Hj) (eq_sym E)).
    + exfalso. exact (kname_not_cname c e _ (Yi i Hi) E).
    + apply kname_inj in E; [|apply Yi; assumption|apply Yi; assumption]. rewrite E. reflexivity.
  - intros n In_. destruct (entry_of_name n In_) as [[-> [Es Ef]]|[i [Hi [-> [Es Ef]]]]]; eexists _, _;
      (split; [exact Ef|]; split; [exact Es|]; apply (target_in c e _ keys closed _ Hlen)).
    + left. left. rewrite key_of_cur. reflexivity.
    + right. exists i. split; [exact Hi|]. rewrite key_of_infix by (apply Yi; exact Hi). reflexivity.
  - intros a Ia. apply dir_names_lookup. apply (target_in c e _ keys closed a Hlen) in Ia.
    destruct V as [_ [Hcl [[jc [Lc _]] _]]].
    destruct Ia as [[<-|[]]|[i [Hi ->]]]; unfold ename; cbn [fst snd]; [eauto|]. destruct (Hcl i Hi) as [j [Lj _]]. eauto.
Qed.
End Reader.

Print Assumptions ts_reader_order.

(* ------------------------------------------------------------------ the C01 oracle on the snapshot of a run *)
Theorem timestamps_reader c crit t0 off ops :
  tscfg c crit -> tag_ok c -> not_gz c -> Forall basic_op ops -> Forall tick_ok ops ->
  (0 <= t0 + ts_e c off)%Z -> (t0 + elapsed ops + ts_e c off < sec_max)%Z -> (N.of_nat (length ops) <= usize_max)%N ->
  let x := fst (run (sys0 t0 off) (OStart c :: ops ++ [OStop])) in
  concat (family_in_order c (snap_of x)) = written ops
  /\ ((names (wfs (s_w x)) = [] /\ family_in_order c (snap_of x) = [])
      \/ exists keys closed cur, ts_view c (ts_e c off) (wfs (s_w x)) keys closed cur /\ keys_ok keys
                                 /\ family_in_order c (snap_of x) = closed ++ [cur]).
Proof.
  intros Hcfg T G Hb Htk Hlo Hhi Hmax x.
  pose proof (timestamps_stream c crit t0 off ops Hcfg T Hb Htk Hlo Hhi Hmax) as TS. cbv zeta in TS. fold x in TS.
  destruct TS as [[Hn Hw]|[keys [cl [cu [V [F [K Rg]]]]]]].
  - assert (E : family_in_order c (snap_of x) = []).
    { rewrite snap_of_list. unfold snap_list, dir_names. rewrite Hn. reflexivity. }
    rewrite E, Hw. split; [reflexivity | left; auto].
  - assert (Y : years_ok (ts_e c off) t0 (t0 + elapsed ops)) by (split; assumption).
    pose proof (ts_reader_order c crit _ _ _ _ keys cl cu Hcfg G Y Rg K V) as E. rewrite <- snap_of_list in E.
    split; [|right; exists keys, cl, cu; auto].
    rewrite E, concat_app. cbn [concat]. rewrite app_nil_r. exact F.
Qed.
Print Assumptions timestamps_reader.

Corollary timestamps_oracle_C01 c crit t0 off ops :
  tscfg c crit -> tag_ok c -> not_gz c -> Forall basic_op ops -> Forall tick_ok ops ->
  (0 <= t0 + ts_e c off)%Z -> (t0 + elapsed ops + ts_e c off < sec_max)%Z -> (N.of_nat (length ops) <= usize_max)%N ->
  oracle_C01 None (items false ops) (family_in_order c (snap_of (fst (run (sys0 t0 off) (OStart c :: ops ++ [OStop]))))) = true.
Proof.
  intros Hcfg T G Hb Htk Hlo Hhi Hmax. unfold oracle_C01.
  rewrite (proj1 (timestamps_reader c crit t0 off ops Hcfg T G Hb Htk Hlo Hhi Hmax)). cbn [app].
  rewrite items_written by exact Hb. apply beq_refl.
Qed.
Print Assumptions timestamps_oracle_C01.

(* ------------------------------------------------------------------ examples *)
Import String.StringSyntax.
Open Scope string_scope.

Lemma ext_c_not_gz : not_gz ext_c.
Proof. vm_compute. reflexivity. Qed.

(* the history of TsTheorems.ts_instance_dir: the reader finds the six files in the order of their closing *)
Example ts_reader_instance_computed :
  family_in_order ext_c (snap_of (fst (run (sys0 0 0) (OStart ext_c :: ext_ops ++ [OStop]))))
  = [bs "a"; bs "b"; bs "c"; bs "d"; bs "e"; bs "f"].
Proof. vm_compute. reflexivity. Qed.

Example ts_oracle_instance :
  oracle_C01 None (items false ext_ops) (family_in_order ext_c (snap_of (fst (run (sys0 0 0) (OStart ext_c :: ext_ops ++ [OStop]))))) = true.
Proof.
  apply (timestamps_oracle_C01 ext_c (CSize 100) 0 0 ext_ops ext_c_ok ext_c_tag_ok ext_c_not_gz ext_ops_basic ext_ops_ticks).
  - change (0 <= 0)%Z. lia.
  - change (1 < sec_max)%Z. unfold sec_max. lia.
  - vm_compute. discriminate.
Qed.

(* tick_ok is needed for the reader order: with the clock going backwards (TsTheorems.clock_backwards_order) the
   reader takes "c" before "b", and the stream is no longer the one written *)
Example clock_backwards_reader :
  family_in_order ext_c (snap_of (fst (run (sys0 0 0) (OStart ext_c :: back_ops ++ [OStop]))))
  = [bs "a"; bs "c"; bs "b"; bs "d"]
  /\ written back_ops = bs "abcd"
  /\ oracle_C01 None (items false back_ops)
       (family_in_order ext_c (snap_of (fst (run (sys0 0 0) (OStart ext_c :: back_ops ++ [OStop]))))) = false.
Proof. vm_compute. repeat split; reflexivity. Qed.

(* not_gz is needed: a family whose suffix is "gz" is not read back by the reader at all (it takes ".gz" for the mark of
   a compressed file and then misses the suffix) *)
Example gz_suffix_reader :
  family_in_order (ext_cfg (ex_sp "gz") false (CSize 100) None false)
    (snap_of (fst (run (sys0 0 0) (OStart (ext_cfg (ex_sp "gz") false (CSize 100) None false) :: [OWrite (bs "a"); OTrigger; OWrite (bs "b")] ++ [OStop]))))
  = []
  /\ snap_of (fst (run (sys0 0 0) (OStart (ext_cfg (ex_sp "gz") false (CSize 100) None false) :: [OWrite (bs "a"); OTrigger; OWrite (bs "b")] ++ [OStop])))
     = [ (bs "app_r1970-01-01_00-00-00.gz", 0%N, bs "a"); (bs "app_rCURRENT.gz", 0%N, bs "b") ].
Proof. vm_compute. split; reflexivity. Qed.
