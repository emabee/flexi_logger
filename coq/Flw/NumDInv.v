(* NumbersDirect naming (r00000, r00001, ...; the writer writes into the file with the highest number, a rotation
   opens the next number and renames nothing): the invariant that ties the concrete state to the abstract reader's
   view (closed files in order, current content ++ pending bytes), NumDInvX, the same in a directory that also holds
   foreign files, and the layouts numd_layout / numdx_layout (NumInv.layout) that they give.  The abstract view is
   the one of Numbers naming (NumInv.v / NumRun.v); only the name of the current file differs: it is
   rname c (length closed). *)
Require Import FL.Base.Bytes FL.Base.BytesFacts FL.Fs.Fs FL.Names.FileSpec FL.Flw.Model FL.Flw.ModelFacts FL.Flw.NumFs
  FL.Flw.NumInv.
Open Scope nat_scope.

(* the configurations covered: NumbersDirect naming, no cleanup, no start-time part, no symlink, synchronous *)
Definition numdcfg (c : config) (crit : criterion) : Prop :=
  c_rot c = Some (crit, NNumbersDirect, KNever) /\ fts (c_spec c) = false /\ c_symlink c = false /\ c_async c = false.

(* ---- file-system level description of one rotation without rename:
        create the next file, the old writer flushes into its own inode ---- *)
Lemma direct_fs_spec f tgt old pend now : fs_wf f -> old < length (inodes f) -> lookup f tgt = None ->
  let f2 := fst (create_file f tgt 0%N now) in
  let new := snd (create_file f tgt 0%N now) in
  let f3 := append_ino f2 old pend in
  fs_wf f3 /\ new = length (inodes f) /\ lookup f3 tgt = Some new
  /\ (forall n, n <> tgt -> lookup f3 n = lookup f n)
  /\ inode f3 new = fresh_file now
  /\ inode f3 old = with_data (inode f old) (content f old ++ pend)
  /\ (forall j, j <> new -> j <> old -> inode f3 j = inode f j).
Proof.
  intros W Hold Ht. cbn zeta.
  pose proof (create_file_spec f tgt 0%N now) as S. pose proof (wf_create f tgt 0%N now W Ht) as W2.
  destruct (create_file f tgt 0%N now) as [f2 new]. cbn [fst snd] in *. destruct S as [-> [Hino2 [L2c L2o]]].
  assert (Hold2 : old < length (inodes f2)) by (rewrite Hino2, app_length; cbn; lia).
  split; [apply wf_append; exact W2|]. split; [reflexivity|].
  split; [rewrite lookup_append; exact L2c|].
  split. { intros n H1. rewrite lookup_append. apply L2o; assumption. }
  split. { rewrite inode_append by assumption. destruct (Nat.eqb_spec (length (inodes f)) old) as [E0|_]; [lia|].
           unfold inode. rewrite Hino2, inode_app_new. reflexivity. }
  split. { rewrite inode_append, Nat.eqb_refl by assumption. unfold content, inode. rewrite Hino2, inode_app_old by assumption.
           reflexivity. }
  intros j Hj1 Hj2. rewrite inode_append by assumption. destruct (Nat.eqb_spec j old); [congruence|].
  unfold inode. rewrite Hino2. destruct (Nat.lt_ge_cases j (length (inodes f))) as [Hlt|Hge].
  - rewrite inode_app_old by assumption. reflexivity.
  - rewrite !nth_overflow; [reflexivity | lia | rewrite app_length; cbn; lia].
Qed.

Lemma rname_S c n : nm c (number_infix (N.of_nat n + 1)) = rname c (S n).
Proof. unfold rname. replace (N.of_nat (S n)) with (N.of_nat n + 1)%N by lia. reflexivity. Qed.

(* ---- the invariant ---- *)
Record NumDInv (c : config) (w : world) (wr : writer) (closed : list bytes) : Prop := {
  nd_quiet : quiet w;
  nd_wf : fs_wf (wfs w);
  nd_cur : lookup (wfs w) (rname c (length closed)) = Some (wino wr);
  nd_curplain : plain (inode (wfs w) (wino wr));
  nd_closed : forall i, i < length closed ->
      exists j, lookup (wfs w) (rname c i) = Some j /\ plain (inode (wfs w) j) /\ content (wfs w) j = nth i closed [];
  nd_only : forall n j, lookup (wfs w) n = Some j -> exists i, i <= length closed /\ n = rname c i;
  nd_wr : wr_ok wr;
  nd_cap : wcap wr = c_cap c }.

(* the same in a directory that also holds the files `extra` (name, content), none of them under a numbered name of the
   family; the writer may have another buffer capacity than the configuration says *)
Record NumDInvX (c : config) (w : world) (wr : writer) (closed : list bytes) (extra : list (bytes * bytes)) : Prop := {
  dx_quiet : quiet w;
  dx_wf : fs_wf (wfs w);
  dx_cur : lookup (wfs w) (rname c (length closed)) = Some (wino wr);
  dx_curplain : plain (inode (wfs w) (wino wr));
  dx_closed : forall i, i < length closed ->
      exists j, lookup (wfs w) (rname c i) = Some j /\ plain (inode (wfs w) j) /\ content (wfs w) j = nth i closed [];
  dx_extra : forall n d, In (n, d) extra ->
      exists j, lookup (wfs w) n = Some j /\ plain (inode (wfs w) j) /\ content (wfs w) j = d;
  dx_only : forall n j, lookup (wfs w) n = Some j ->
      (exists i, i <= length closed /\ n = rname c i) \/ In n (List.map fst extra);
  dx_fresh : forall n, In n (List.map fst extra) -> forall i, n <> rname c i;
  dx_wr : wr_ok wr }.

Lemma numdinv_x c w wr closed : NumDInv c w wr closed -> NumDInvX c w wr closed [].
Proof.
  intros [Q W Hc Hcp Hcl Hon Hwr Hcap]. constructor; try assumption.
  - intros n d [].
  - intros n j H. left. exact (Hon n j H).
  - intros n [].
Qed.

Lemma numdinvx_base c w wr closed : NumDInvX c w wr closed [] -> wcap wr = c_cap c -> NumDInv c w wr closed.
Proof.
  intros [Q W Hc Hcp Hcl Hex Hon Hfr Hwr] Hcap. constructor; try assumption.
  intros n j H. destruct (Hon n j H) as [E|[]]. exact E.
Qed.

(* the opened-file step of open_log_file on a name that does not exist *)
Lemma open_fresh_quiet c w name : quiet w -> c_symlink c = false -> lookup (wfs w) name = None ->
  exists w2, p_open (do_symlink c w name) name (c_append c) = (Some (snd (create_file (wfs w) name 0%N (wnow w))), w2)
    /\ wfs w2 = fst (create_file (wfs w) name 0%N (wnow w)) /\ same_env w w2.
Proof.
  intros Q Hlink Ht. unfold do_symlink. rewrite Hlink, (p_open_fresh _ _ _ Q Ht).
  exists (set_fs w (fst (create_file (wfs w) name 0%N (wnow w)))).
  split; [reflexivity|]. split; [reflexivity | exact (same_env_set_fs w _ Q)].
Qed.

(* ---- one rotation on the level of the invariant ---- *)
Lemma rotate_numdinvx c w wr cl extra now : NumDInvX c w wr cl extra ->
  lookup (wfs w) (rname c (S (length cl))) = None /\
  forall w3, quiet w3 ->
    wfs w3 = append_ino (fst (create_file (wfs w) (rname c (S (length cl))) 0%N now)) (wino wr) (wpend wr) ->
    NumDInvX c w3 {| wino := snd (create_file (wfs w) (rname c (S (length cl))) 0%N now); wpend := []; wcap := c_cap c |}
            (cl ++ [cur_view w wr]) extra
    /\ cur_view w3 {| wino := snd (create_file (wfs w) (rname c (S (length cl))) 0%N now); wpend := []; wcap := c_cap c |} = []
    /\ file_of (wfs w3) (rname c (S (length cl))) = Some (fresh_file now).
Proof.
  intros I. pose proof I as [Q W Hc Hcp Hcl Hex Hon Hfr Hwr].
  assert (Elen : length (cl ++ [cur_view w wr]) = S (length cl)) by (rewrite app_length; cbn [length]; lia).
  (* the next name is free *)
  assert (Ht : lookup (wfs w) (rname c (S (length cl))) = None).
  { destruct (lookup (wfs w) (rname c (S (length cl)))) as [j|] eqn:E; [|reflexivity]. exfalso.
    destruct (Hon _ _ E) as [[i [Hi E1]]|E1].
    - apply rname_inj in E1. lia.
    - exact (Hfr _ E1 _ eq_refl). }
  split; [exact Ht|]. intros w3 Q3 F3'.
  pose proof (wf_bound _ W _ _ Hc) as Hold.
  pose proof (direct_fs_spec (wfs w) (rname c (S (length cl))) (wino wr) (wpend wr) now W Hold Ht) as R.
  cbn zeta in R. destruct R as [W3 [Hnew [L3t [L3o [Inew [Iold Ioth]]]]]].
  set (new := snd (create_file (wfs w) (rname c (S (length cl))) 0%N now)) in *.
  set (f3 := append_ino (fst (create_file (wfs w) (rname c (S (length cl))) 0%N now)) (wino wr) (wpend wr)) in *.
  (* a file under another name than the old and the new current one keeps its inode and its content *)
  assert (Hkeep : forall n j, lookup (wfs w) n = Some j -> n <> rname c (length cl) -> n <> rname c (S (length cl)) ->
            lookup f3 n = Some j /\ inode f3 j = inode (wfs w) j).
  { intros n j Lj Hn1 Hn2. rewrite L3o by assumption. split; [exact Lj|]. apply Ioth.
    - pose proof (wf_bound _ W _ _ Lj). rewrite Hnew. lia.
    - intros ->. exact (Hn1 (wf_inj _ W _ _ _ Lj Hc)). }
  split; [|split].
  { constructor; cbn [wino wpend wcap].
    - exact Q3.
    - rewrite F3'. exact W3.
    - rewrite F3', Elen. exact L3t.
    - rewrite F3'. rewrite Inew. split; reflexivity.
    - intros i Hi. rewrite Elen in Hi. rewrite F3'.
      destruct (Nat.eq_dec i (length cl)) as [->|Hne].
      + exists (wino wr). split; [rewrite L3o; [exact Hc | intros E; apply rname_inj in E; lia]|]. split.
        * rewrite Iold. exact Hcp.
        * unfold content at 1. rewrite Iold. cbn [with_data fdata]. rewrite app_nth2, Nat.sub_diag by lia. reflexivity.
      + assert (Hi' : i < length cl) by lia. destruct (Hcl i Hi') as [j [Lj [Pj Cj]]].
        destruct (Hkeep _ j Lj) as [Lj' Ij]; try (intros E; apply rname_inj in E; lia).
        exists j. split; [exact Lj'|]. unfold content. rewrite Ij. split; [exact Pj|]. rewrite app_nth1 by assumption. exact Cj.
    - intros n d Hin. rewrite F3'. destruct (Hex n d Hin) as [j [Lj [Pj Cj]]].
      pose proof (Hfr n (in_map fst _ _ Hin)) as Hn.
      destruct (Hkeep n j Lj (Hn _) (Hn _)) as [Lj' Ij].
      exists j. split; [exact Lj'|]. unfold content. rewrite Ij. split; [exact Pj | exact Cj].
    - intros n j Hn. rewrite F3' in Hn. rewrite Elen.
      destruct (beq_spec n (rname c (S (length cl)))) as [->|Hn1].
      + left. exists (S (length cl)). split; [lia | reflexivity].
      + rewrite L3o in Hn by assumption. destruct (Hon _ _ Hn) as [[i [Hi E]]|E].
        * left. exists i. split; [lia | exact E].
        * right. exact E.
    - exact Hfr.
    - apply wr_ok_nil. }
  { unfold cur_view. rewrite F3'. cbn [wino wpend]. unfold content. rewrite Inew. reflexivity. }
  { unfold file_of. rewrite F3', L3t, Inew. reflexivity. }
Qed.

Lemma rotate_numdinv c w wr cl now : NumDInv c w wr cl ->
  lookup (wfs w) (rname c (S (length cl))) = None /\
  forall w3, quiet w3 ->
    wfs w3 = append_ino (fst (create_file (wfs w) (rname c (S (length cl))) 0%N now)) (wino wr) (wpend wr) ->
    NumDInv c w3 {| wino := snd (create_file (wfs w) (rname c (S (length cl))) 0%N now); wpend := []; wcap := c_cap c |}
            (cl ++ [cur_view w wr])
    /\ cur_view w3 {| wino := snd (create_file (wfs w) (rname c (S (length cl))) 0%N now); wpend := []; wcap := c_cap c |} = []
    /\ file_of (wfs w3) (rname c (S (length cl))) = Some (fresh_file now).
Proof.
  intros I. destruct (rotate_numdinvx c w wr cl [] now (numdinv_x _ _ _ _ I)) as [Ht R].
  split; [exact Ht|]. intros w3 Q3 F3.
  destruct (R w3 Q3 F3) as [I3 V3]. split; [exact (numdinvx_base _ _ _ _ I3 eq_refl) | exact V3].
Qed.

(* ---- one rotation: the next number is opened, nothing is renamed ---- *)
Lemma mount_next_rotates_dx c crit w wr closed extra roll force :
  numdcfg c crit -> NumDInvX c w wr closed extra ->
  force || rotation_necessary w roll = true ->
  exists w' wr' roll',
    mount_next c w (Active (Some (mk_rs (NSNumD (N.of_nat (length closed))) roll)) wr (rname c (length closed))) force
      = (Ok tt, w', Active (Some (mk_rs (NSNumD (N.of_nat (length (closed ++ [cur_view w wr])))) roll')) wr'
                          (rname c (length (closed ++ [cur_view w wr]))))
    /\ NumDInvX c w' wr' (closed ++ [cur_view w wr]) extra
    /\ cur_view w' wr' = [] /\ roll_size_ok roll' 0 /\ same_env w w'
    /\ roll_kept crit true (wnow w) roll roll' /\ wcap wr' = c_cap c.
Proof.
  intros [Hrot [Hts [Hlink _]]] I Hnec.
  pose proof (dx_quiet _ _ _ _ _ I) as Q.
  assert (Elen : length (closed ++ [cur_view w wr]) = S (length closed)) by (rewrite app_length; cbn [length]; lia).
  rewrite Elen.
  unfold mount_next. cbn [mk_rs rs_roll rs_naming rs_cleanup rs_bg]. rewrite Hnec.
  unfold open_log_file. rewrite (name_of_fixed c w) by assumption.
  fold (nm c (number_infix (N.of_nat (length closed) + 1))). rewrite rname_S.
  destruct (rotate_numdinvx c w wr closed extra (wnow w) I) as [Ht RI].
  destruct (open_fresh_quiet c w (rname c (S (length closed))) Q Hlink Ht) as [w2 [Eop [F2 S2]]]. rewrite Eop.
  (* the old writer is dropped *)
  unfold w_drop. destruct (w_flush_quiet w2 wr (proj1 S2)) as [w3 [Efl [F3 S3]]]. rewrite Efl. cbn [fst snd].
  unfold cleanup_or_queue. cbn [mk_rs rs_roll rs_naming rs_cleanup rs_bg cleanup_impl].
  rewrite F2 in F3. destruct (RI w3 (proj1 S3) F3) as [I3 [V3 Fo]].
  assert (B : birth_or_now w3 (rname c (S (length closed))) = wnow w) by (unfold birth_or_now; rewrite Fo; reflexivity).
  eexists w3, _, (reset_size_and_date w3 roll (rname c (S (length closed)))).
  split. { replace (N.of_nat (S (length closed))) with (N.of_nat (length closed) + 1)%N by lia. reflexivity. }
  split; [exact I3|]. split; [exact V3|]. split; [apply reset_size_zero|].
  split; [eapply same_env_trans; eassumption|]. split; [rewrite <- B; apply roll_kept_reset | reflexivity].
Qed.

(* ---- appending to the current inode keeps the invariant ---- *)
Lemma numdinvx_append c w w' wr wr' closed extra x :
  NumDInvX c w wr closed extra -> wfs w' = append_ino (wfs w) (wino wr) x -> same_env w w' ->
  wino wr' = wino wr -> wr_ok wr' ->
  NumDInvX c w' wr' closed extra /\ content (wfs w') (wino wr') = content (wfs w) (wino wr) ++ x.
Proof.
  intros [Q W Hc Hcp Hcl Hex Hon Hfr Hwr] F SE Ei Hok.
  pose proof (wf_bound _ W _ _ Hc) as Hold.
  (* another file than the current one keeps its content *)
  assert (Hkeep : forall n j, lookup (wfs w) n = Some j -> n <> rname c (length closed) ->
            lookup (wfs w') n = Some j /\ inode (wfs w') j = inode (wfs w) j).
  { intros n j Lj Hn. rewrite F, lookup_append. split; [exact Lj|].
    rewrite inode_append by assumption. destruct (Nat.eqb_spec j (wino wr)) as [->|]; [|reflexivity].
    exfalso. exact (Hn (wf_inj _ W _ _ _ Lj Hc)). }
  split.
  - constructor.
    + exact (proj1 SE).
    + rewrite F. apply wf_append. exact W.
    + rewrite F, lookup_append, Ei. exact Hc.
    + rewrite F, Ei, inode_append, Nat.eqb_refl by assumption. exact Hcp.
    + intros i Hi. destruct (Hcl i Hi) as [j [Lj [Pj Cj]]].
      destruct (Hkeep _ j Lj) as [Lj' Ij]; [intros E; apply rname_inj in E; lia|].
      exists j. unfold content. rewrite Ij. auto.
    + intros n d Hin. destruct (Hex n d Hin) as [j [Lj [Pj Cj]]].
      destruct (Hkeep n j Lj (Hfr n (in_map fst _ _ Hin) _)) as [Lj' Ij].
      exists j. unfold content. rewrite Ij. auto.
    + intros n j. rewrite F, lookup_append. apply Hon.
    + exact Hfr.
    + exact Hok.
  - rewrite F, Ei, content_append, Nat.eqb_refl by assumption. reflexivity.
Qed.

Lemma numdinv_append c w w' wr wr' closed x :
  NumDInv c w wr closed -> wfs w' = append_ino (wfs w) (wino wr) x -> same_env w w' ->
  wino wr' = wino wr -> wcap wr' = wcap wr -> wr_ok wr' ->
  NumDInv c w' wr' closed /\ content (wfs w') (wino wr') = content (wfs w) (wino wr) ++ x.
Proof.
  intros I F SE Ei Ec Hok.
  destruct (numdinvx_append c w w' wr wr' closed [] x (numdinv_x _ _ _ _ I) F SE Ei Hok) as [I' C'].
  split; [|exact C']. apply numdinvx_base; [exact I'|]. rewrite Ec. exact (nd_cap _ _ _ _ I).
Qed.

Definition st_of_d (c : config) (n : nat) (roll : roll_state) (wr : writer) : flw :=
  {| f_cfg := c; f_inner := Active (Some (mk_rs (NSNumD (N.of_nat n)) roll)) wr (rname c n); f_poisoned := false |}.

Lemma numdinvx_env c w w' wr closed extra : NumDInvX c w wr closed extra -> wfs w' = wfs w -> quiet w' -> NumDInvX c w' wr closed extra.
Proof. intros [Q W Hc Hcp Hcl Hex Hon Hfr Hwr] F Q'. constructor; try rewrite F; assumption. Qed.

Lemma numdinv_env c w w' wr closed : NumDInv c w wr closed -> wfs w' = wfs w -> quiet w' -> NumDInv c w' wr closed.
Proof. intros I F Q'. exact (numdinvx_base _ _ _ _ (numdinvx_env _ _ _ _ _ _ (numdinv_x _ _ _ _ I) F Q') (nd_cap _ _ _ _ I)). Qed.

(* ---- the invariant on a directory that holds just the fresh file r00000 ---- *)
Lemma numdinv_first c w2 f now : quiet w2 -> names f = [] -> inodes f = [] ->
  wfs w2 = fst (create_file f (rname c 0) 0%N now) ->
  NumDInv c w2 {| wino := 0; wpend := []; wcap := c_cap c |} []
  /\ cur_view w2 {| wino := 0; wpend := []; wcap := c_cap c |} = []
  /\ file_of (wfs w2) (rname c 0) = Some (fresh_file now).
Proof.
  intros Q Hn Hi F2. unfold create_file in F2. cbn [fst] in F2. rewrite Hn, Hi in F2. cbn [length app] in F2.
  assert (Lc : lookup (wfs w2) (rname c 0) = Some 0) by (rewrite F2; unfold lookup; cbn; rewrite beq_refl; reflexivity).
  split; [|split].
  - constructor; cbn [length wino wpend wcap].
    + exact Q.
    + rewrite F2. split.
      * intros a j. unfold lookup; cbn. destruct (beq (rname c 0) a); [|discriminate]. intros E; injection E as <-. lia.
      * intros a b j. unfold lookup; cbn. destruct (beq_spec (rname c 0) a), (beq_spec (rname c 0) b); try discriminate. congruence.
    + exact Lc.
    + rewrite F2. split; reflexivity.
    + intros i Hi'. lia.
    + intros n j. rewrite F2. unfold lookup; cbn. destruct (beq_spec (rname c 0) n) as [<-|]; [|discriminate].
      intros _. exists 0. split; [lia | reflexivity].
    + apply wr_ok_nil.
    + reflexivity.
  - unfold cur_view, content, inode. rewrite F2. reflexivity.
  - unfold file_of. rewrite Lc, F2. reflexivity.
Qed.

(* ---- the first write initialises the writer: empty directory ---- *)
Lemma initialize_empty_d_roll c crit w :
  numdcfg c crit -> quiet w -> names (wfs w) = [] -> inodes (wfs w) = [] ->
  exists w' wr,
    initialize c w = (Ok (Active (Some (mk_rs (NSNumD 0) (roll_of crit 0 (wnow w)))) wr (rname c 0)), w')
    /\ NumDInv c w' wr [] /\ cur_view w' wr = [] /\ same_env w w'.
Proof.
  intros [Hrot [Hts [Hlink _]]] Q Hn Hi.
  unfold initialize. rewrite Hrot. unfold init_naming, with_listing.
  rewrite tick_quiet by assumption.
  unfold get_highest_index, list_log_gz. rewrite existing_rot_empty by assumption. cbn [filter_map_opt max_opt bind].
  assert (N0 : name_of c w (Some (number_infix 0)) = rname c 0) by (apply name_of_fixed; assumption).
  rewrite open_log_file_fresh by (try assumption; apply lookup_empty; exact Hn).
  rewrite N0. cbn [bind].
  set (w2 := set_fs w (fst (create_file (wfs w) (rname c 0) 0%N (wnow w)))).
  destruct (numdinv_first c w2 (wfs w) (wnow w) (quiet_set_fs w _ Q) Hn Hi eq_refl) as [I2 [V2 Fo]].
  rewrite (roll_new_quiet w2 crit (c_append c) (rname c 0) _ (quiet_set_fs w _ Q) Fo). cbn [bind fresh_file fdata fborn length].
  rewrite Hi. cbn [length].
  exists w2, {| wino := 0; wpend := []; wcap := c_cap c |}.
  split; [destruct (c_append c); reflexivity|]. split; [exact I2|]. split; [exact V2|]. apply same_env_set_fs. exact Q.
Qed.

Lemma initialize_empty_d c crit w :
  numdcfg c crit -> quiet w -> names (wfs w) = [] -> inodes (wfs w) = [] ->
  exists w' wr roll,
    initialize c w = (Ok (Active (Some (mk_rs (NSNumD 0) roll)) wr (rname c 0)), w')
    /\ NumDInv c w' wr [] /\ cur_view w' wr = [] /\ roll_size_ok roll 0 /\ same_env w w'
    /\ (forall m, crit = CSize m -> roll = RSize m 0).
Proof.
  intros Hcfg Q Hn Hi. destruct (initialize_empty_d_roll c crit w Hcfg Q Hn Hi) as [w' [wr [E [I [V S]]]]].
  exists w', wr, (roll_of crit 0 (wnow w)).
  split; [exact E|]. split; [exact I|]. split; [exact V|]. split; [exact (roll_of_size crit 0 _)|]. split; [exact S|].
  intros m ->. reflexivity.
Qed.

Lemma numdcfg_sync c crit : numdcfg c crit -> fts (c_spec c) = false /\ c_async c = false.
Proof. intros [_ [Hts [_ Ha]]]. split; assumption. Qed.

Lemma numd_layout : layout numdcfg (fun n => NSNumD (N.of_nat n)) (fun c n => rname c n) NumDInv.
Proof.
  split; [split; [split|]|].
  - exact nd_quiet.
  - exact nd_wr.
  - exact numdinv_env.
  - exact numdinv_append.
  - intros c crit w wr cl roll force Hcfg I Hnec.
    destruct (mount_next_rotates_dx c crit w wr cl [] roll force Hcfg (numdinv_x _ _ _ _ I) Hnec)
      as [w' [wr' [roll' [E [I' [V' [Z' [S' [K' C']]]]]]]]].
    exists w', wr', roll'. split; [exact E|]. split; [exact (numdinvx_base _ _ _ _ I' C') | auto].
  - exact numdcfg_sync.
  - exact initialize_empty_d_roll.
Qed.

Lemma mount_next_rotates_d c crit w wr closed roll force :
  numdcfg c crit -> NumDInv c w wr closed ->
  force || rotation_necessary w roll = true ->
  exists w' wr' roll',
    mount_next c w (Active (Some (mk_rs (NSNumD (N.of_nat (length closed))) roll)) wr (rname c (length closed))) force
      = (Ok tt, w', Active (Some (mk_rs (NSNumD (N.of_nat (length (closed ++ [cur_view w wr])))) roll')) wr'
                          (rname c (length (closed ++ [cur_view w wr]))))
    /\ NumDInv c w' wr' (closed ++ [cur_view w wr])
    /\ cur_view w' wr' = [] /\ roll_size_ok roll' 0 /\ same_env w w'
    /\ (forall m cur, roll = RSize m cur -> exists cur', roll' = RSize m cur').
Proof.
  intros Hcfg I Hnec.
  destruct (lo_rotate _ _ _ _ numd_layout c crit w wr closed roll force Hcfg I Hnec) as [w' [wr' [roll' [E [I' [V' [Z' [S' [R' _]]]]]]]]].
  exists w', wr', roll'. auto 6.
Qed.


Lemma numdx_layout extra :
  active_layout numdcfg (fun n => NSNumD (N.of_nat n)) (fun c n => rname c n) (fun c w wr cl => NumDInvX c w wr cl extra).
Proof.
  split; [split|].
  - intros c w wr cl. apply dx_quiet.
  - intros c w wr cl. apply dx_wr.
  - intros c w w' wr cl. apply numdinvx_env.
  - intros c w w' wr wr' cl x I F S Ei _. exact (numdinvx_append c w w' wr wr' cl extra x I F S Ei).
  - intros c crit w wr cl roll force Hcfg I Hn.
    destruct (mount_next_rotates_dx c crit w wr cl extra roll force Hcfg I Hn) as [w' [wr' [roll' [E [I' [V' [Z' [S' [K' _]]]]]]]]].
    exists w', wr', roll'. auto 6.
  - exact numdcfg_sync.
Qed.

(* ---- a write on an active writer ---- *)
Lemma write_active_d c crit w wr closed roll b :
  numdcfg c crit -> NumDInv c w wr closed -> roll_size_ok roll (length (cur_view w wr)) ->
  let rot := rotation_necessary w roll in
  exists w' wr' roll' closed',
    write_buffer (st_of_d c (length closed) roll wr) w b = (Ok tt, w', st_of_d c (length closed') roll' wr', rot)
    /\ NumDInv c w' wr' closed' /\ roll_size_ok roll' (length (cur_view w' wr')) /\ same_env w w'
    /\ (closed', cur_view w' wr') = (if rot then (closed ++ [cur_view w wr], b) else (closed, cur_view w wr ++ b))
    /\ (forall m cur, roll = RSize m cur -> exists cur', roll' = RSize m cur').
Proof.
  intros Hcfg I Hsz.
  destruct (active_write _ _ _ _ numd_layout c crit w wr closed roll 0 b Hcfg I Hsz) as [w' [wr' [roll' [cl' [E [I' [Z' [S' [V' [R' _]]]]]]]]]].
  rewrite ghost_none in Z'. exists w', wr', roll', cl'. auto 7.
Qed.

(* ---- flush ---- *)
Lemma flush_active_d c w wr closed roll :
  NumDInv c w wr closed ->
  exists w' wr', flush_state (st_of_d c (length closed) roll wr) w = (true, w', st_of_d c (length closed) roll wr')
    /\ NumDInv c w' wr' closed /\ cur_view w' wr' = cur_view w wr /\ wpend wr' = [] /\ same_env w w'.
Proof. exact (active_flush _ _ _ _ numd_layout c w wr closed roll). Qed.
