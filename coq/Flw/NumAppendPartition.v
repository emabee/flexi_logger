(* Numbers naming with a size criterion: the greedy partition over SEQUENCES of runs on one directory, i.e. for every
   start state (fresh directory; a directory left behind by earlier writers, continued with or without append).

   - with append the content found in rCURRENT counts for the limit from the first write on: the files of the run are
     expected_files m (Some cur) items, cur being the content found;
   - without append rCURRENT is closed under the next number - NOT when the writer is built but when it writes for the
     first time (the writer opens its file lazily) - and the run's own files are expected_files m None items;
   - a writer that never writes leaves the directory as it is (also without append: rCURRENT is not rotated).

   The abstract side (init_view, g_step, g_run, gview) is the one of NumRestart.v; what is added here is the size rule
   for g_run (gs_run) and its reading in terms of the oracle expected_files / s_run.  The concrete side is proved for
   any numbered layout with a restart_layout (Section Layout); the theorems numbers_* are its instance for Numbers
   naming. *)
Require Import FL.Base.Bytes FL.Fs.Fs FL.Names.FileSpec FL.Flw.Model FL.Flw.ModelFacts FL.Flw.NumInv FL.Flw.Run
  FL.Flw.RunFacts FL.Flw.NumRun FL.Flw.NumListing FL.Oracles.O_Flw FL.Flw.NumTheorems FL.Flw.NumRestart.
Import String.StringSyntax.
Open Scope nat_scope.

(* ================================================================== the abstract side *)
(* the bytes that count for the limit before the next write: before the first write of a run, what the writer will
   find (append) or nothing (no append: the file found is closed first) *)
Definition gcur (c : config) (v a : aview) : bytes :=
  match a with None => snd (init_view c v) | Some (_, cu) => cu end.

(* one run under the size rule *)
Fixpoint gs_run (m : N) (c : config) (v a : aview) (ops : list op) : aview :=
  match ops with
  | [] => a
  | o :: r => gs_run m c v (g_step c v a o (m <? N.of_nat (length (gcur c v a)))%N) r
  end.

(* the operations of a run from its first write on: nothing happens before it (flush and trigger on a writer that has
   not opened its file do nothing) *)
Fixpoint from_first_write (ops : list op) : list op :=
  match ops with
  | [] => []
  | OWrite b :: r => OWrite b :: r
  | OPlain b :: r => OPlain b :: r
  | _ :: r => from_first_write r
  end.

Lemma ffw_basic ops : Forall basic_op ops -> Forall basic_op (from_first_write ops).
Proof.
  induction ops as [|o r IH]; intros Hb; [constructor|]. inversion Hb as [|o' r' Ho Hr]; subst.
  destruct o; cbn [from_first_write]; try (apply IH; assumption); exact Hb.
Qed.

Lemma ffw_head ops : match from_first_write ops with
                     | [] => True
                     | o :: _ => exists b, o = OWrite b \/ o = OPlain b
                     end.
Proof. induction ops as [|o r IH]; [exact Logic.I|]. destruct o; cbn [from_first_write]; try exact IH; eauto. Qed.

Lemma items_false_ffw ops : items false ops = items true (from_first_write ops).
Proof. induction ops as [|o r IH]; [reflexivity|]. destruct o; cbn [items from_first_write]; try exact IH; reflexivity. Qed.

Lemma gs_run_some m c v ops : forall p, gs_run m c v (Some p) ops = s_run m (Some p) ops.
Proof.
  induction ops as [|o r IH]; intros p; [reflexivity|]. destruct p as [cl cu]. cbn [gs_run s_run g_step gcur cur_of].
  destruct (a_step_some (cl, cu) o (m <? N.of_nat (length cu))%N) as [q Eq]. rewrite Eq. apply IH.
Qed.

Lemma gs_run_none m c v ops :
  gs_run m c v None ops = match from_first_write ops with [] => None | _ :: _ => s_run m (Some (init_view c v)) (from_first_write ops) end.
Proof.
  induction ops as [|o r IH]; [reflexivity|].
  destruct o; cbn [gs_run g_step from_first_write]; try exact IH.
  - cbn [gcur]. destruct (init_view c v) as [cl cu]. cbn [snd s_run cur_of].
    destruct (a_step_some (cl, cu) (OWrite b) (m <? N.of_nat (length cu))%N) as [q Eq]. rewrite Eq. apply gs_run_some.
  - cbn [gcur]. destruct (init_view c v) as [cl cu]. cbn [snd s_run cur_of].
    destruct (a_step_some (cl, cu) (OPlain b) (m <? N.of_nat (length cu))%N) as [q Eq]. rewrite Eq. apply gs_run_some.
Qed.

Lemma s_run_some m ops : forall p, exists q, s_run m (Some p) ops = Some q.
Proof.
  induction ops as [|o r IH]; intros p; [exists p; reflexivity|]. cbn [s_run].
  destruct (a_step_some p o (m <? N.of_nat (length (cur_of (Some p))))%N) as [q Eq]. rewrite Eq. apply IH.
Qed.

(* the current content does not depend on the files closed before *)
Lemma s_run_cur_indep m ops : forall cl cl' cu,
  cur_of (s_run m (Some (cl, cu)) ops) = cur_of (s_run m (Some (cl', cu)) ops).
Proof.
  induction ops as [|o r IH]; intros cl cl' cu; [reflexivity|].
  destruct o; cbn [s_run a_step cur_of]; try apply IH; destruct (m <? N.of_nat (length cu))%N; apply IH.
Qed.

Lemma s_run_none_cur m ops : forall cl,
  cur_of (s_run m None ops) = cur_of (s_run m (Some (cl, [])) (from_first_write ops)).
Proof.
  induction ops as [|o r IH]; intros cl; [reflexivity|].
  destruct o; cbn [s_run a_step from_first_write cur_of]; try apply IH.
  - change (m <? N.of_nat (length (@nil N)))%N with (m <? 0)%N. rewrite (proj2 (N.ltb_ge m 0)) by lia.
    cbn [app]. apply s_run_cur_indep.
  - change (m <? N.of_nat (length (@nil N)))%N with (m <? 0)%N. rewrite (proj2 (N.ltb_ge m 0)) by lia.
    cbn [app]. apply s_run_cur_indep.
Qed.

Lemma partition_closed' m items : forall cl cu, partition m cl cu items = cl ++ partition m [] cu items.
Proof.
  induction items as [|[r|] rest IH]; intros cl cu; cbn [partition app].
  - reflexivity.
  - destruct (m <? N.of_nat (length cu))%N.
    + rewrite (IH (cl ++ [cu])), (IH [cu]), <- app_assoc. reflexivity.
    + apply IH.
  - rewrite (IH (cl ++ [cu])), (IH [cu]), <- app_assoc. reflexivity.
Qed.

(* ------------------------------------------------------------------ in terms of the oracle *)
(* the files after one more run (limit m, operations ops) on a directory that reads `files` (closed files in order,
   rCURRENT last; [] = empty directory) *)
Definition files_after (files : list bytes) (append : bool) (m : N) (ops : list op) : list bytes :=
  if append then
    match files with
    | [] => expected_files m None (items false ops)
    | _ :: _ => removelast files ++ expected_files m (Some (last files [])) (items false ops)
    end
  else files ++ expected_files m None (items false ops).

(* the content found at start that counts *)
Definition start_of (files : list bytes) (append : bool) : option bytes :=
  if append then match files with [] => None | _ :: _ => Some (last files []) end else None.

(* the bytes counted for the current file after the operations ops of a run that found `start` *)
Definition cur_before (m : N) (start : option bytes) (ops : list op) : bytes :=
  match start with
  | None => cur_of (s_run m None ops)
  | Some s => cur_of (s_run m (Some ([], s)) (from_first_write ops))
  end.

Lemma files_of_nonnil cl cu : files_of (Some (cl, cu)) <> [].
Proof. cbn [files_of]. destruct cl; discriminate. Qed.

Lemma gview_files m c v ops : Forall basic_op ops ->
  files_of (gview v (gs_run m c v None ops)) = files_after (files_of v) (c_append c) m ops.
Proof.
  intros Hb. rewrite gs_run_none. unfold files_after. rewrite items_false_ffw.
  pose proof (ffw_basic ops Hb) as Hl. pose proof (ffw_head ops) as Hh.
  destruct (from_first_write ops) as [|o l] eqn:El.
  - (* no write: the directory stays as it is *)
    cbn [gview items]. unfold expected_files. cbn [has_rec].
    destruct v as [[cl cu]|]; cbn [files_of].
    + destruct (c_append c).
      * destruct (cl ++ [cu]) eqn:E0; [destruct cl; discriminate|]. rewrite <- E0.
        rewrite removelast_last, last_last. reflexivity.
      * rewrite app_nil_r. reflexivity.
    + destruct (c_append c); reflexivity.
  - destruct Hh as [b Ho].
    assert (Hr : has_rec (items true (o :: l)) = true) by (destruct Ho as [->| ->]; reflexivity).
    destruct (init_view c v) as [icl icu] eqn:Ei.
    destruct (s_run_some m (o :: l) (icl, icu)) as [q Eq].
    assert (F : files_of (s_run m (Some (icl, icu)) (o :: l)) = icl ++ partition m [] icu (items true (o :: l))).
    { rewrite s_run_partition by exact Hl. apply partition_closed'. }
    rewrite Eq in *. cbn [gview]. rewrite F. unfold expected_files. rewrite Hr.
    destruct v as [[cl cu]|]; cbn [init_view files_of] in *.
    + destruct (c_append c).
      * injection Ei as <- <-. destruct (cl ++ [cu]) eqn:E0; [destruct cl; discriminate|]. rewrite <- E0.
        rewrite removelast_last, last_last. reflexivity.
      * injection Ei as <- <-. reflexivity.
    + injection Ei as <- <-. destruct (c_append c); reflexivity.
Qed.

Lemma gcur_before m c v l :
  gcur c v (gs_run m c v None l) = cur_before m (start_of (files_of v) (c_append c)) l.
Proof.
  rewrite gs_run_none.
  assert (X : gcur c v (match from_first_write l with [] => None | _ :: _ => s_run m (Some (init_view c v)) (from_first_write l) end)
              = cur_of (s_run m (Some (init_view c v)) (from_first_write l))).
  { destruct (from_first_write l) as [|o r] eqn:El.
    - cbn [gcur s_run]. destruct (init_view c v); reflexivity.
    - destruct (s_run_some m (o :: r) (init_view c v)) as [[cl cu] Eq]. rewrite Eq. reflexivity. }
  rewrite X. clear X. unfold start_of, cur_before.
  destruct v as [[cl cu]|]; cbn [init_view files_of].
  - destruct (c_append c).
    + destruct (cl ++ [cu]) eqn:E0; [destruct cl; discriminate|]. rewrite <- E0, last_last. apply s_run_cur_indep.
    + symmetry. apply s_run_none_cur.
  - assert (Y : (if c_append c then @None bytes else None) = None) by (destruct (c_append c); reflexivity).
    rewrite Y. symmetry. apply s_run_none_cur.
Qed.

Fixpoint runs_files (files : list bytes) (rs : list (config * list op)) : list bytes :=
  match rs with
  | [] => files
  | (c, ops) :: r =>
    runs_files (files_after files (c_append c)
                  (match c_rot c with Some (CSize m, _, _) => m | _ => 0%N end) ops) r
  end.


(* ================================================================== the concrete side, for a numbered layout *)
Section Layout.
Variables (cfgp : config -> criterion -> Prop) (ns : nat -> naming_state) (cur : config -> nat -> bytes)
          (Inv : config -> world -> writer -> list bytes -> Prop).
Hypothesis L : layout cfgp ns cur Inv.
Variables (dview : config -> fs -> aview -> Prop) (rd : config -> fs -> list bytes -> Prop).
Hypothesis RL : restart_layout cfgp ns cur Inv dview rd.

(* the first write of a run: the rotation flag is decided by what the writer finds *)
Lemma lfirst_write_size c m x v b :
  cfgp c (CSize m) -> (N.of_nat (length (closed_of v)) <= u32_max)%N -> LPre dview c x v ->
  exists w' s',
    write_buffer (new_flw c) (s_w x) b = (Ok tt, w', s', (m <? N.of_nat (length (snd (init_view c v))))%N).
Proof.
  intros Hcfg Hb [Ht [Ha [Es [Q D]]]]. destruct v as [[cl cu]|].
  - cbn [closed_of] in Hb.
    destruct (rl_init _ _ _ _ _ _ RL c (CSize m) (s_w x) cl cu Hcfg Q D Hb) as [w1 [wr [roll [Ei [I [V [Z [S1 RS]]]]]]]].
    destruct (RS m eq_refl) as [k Ek]. subst roll. cbn [roll_size_ok] in Z. subst k.
    destruct (init_view c (Some (cl, cu))) as [cl1 cu1]. cbn [fst snd] in *.
    assert (Z0 : roll_size_ok (RSize m (N.of_nat (length cu1))) (length (cur_view w1 wr))) by (rewrite V; reflexivity).
    destruct (active_write _ _ _ _ L c (CSize m) w1 wr cl1 _ 0 b Hcfg I Z0) as [w' [wr' [roll' [closed' [E _]]]]].
    exists w', (lay_st ns cur c (length closed') roll' wr').
    rewrite (write_buffer_init c (s_w x) b _ _ _ w1 Ei). exact E.
  - assert (R0 : LRel ns cur Inv c (CSize m) x None).
    { split; [exact Ht|]. split; [exact Ha|]. split; [exact Es|]. split; [exact Q | exact (rl_none _ _ _ _ _ _ RL c _ D)]. }
    destruct (lwrite_rel _ _ _ _ L (lo_init _ _ _ _ L) c (CSize m) x None b Hcfg R0) as [s [w' [s' [rot [Es' [Hp [E [_ C]]]]]]]].
    rewrite Es in Es'. injection Es' as <-. exists w', s'. rewrite E, (C m eq_refl). reflexivity.
Qed.

Lemma lgstep_size c m x v a o b :
  cfgp c (CSize m) -> (N.of_nat (length (closed_of v)) <= u32_max)%N ->
  LGRel ns cur Inv dview c (CSize m) x v a -> (o = OWrite b \/ o = OPlain b) ->
  snd (step x o) = ObsRes 0 (m <? N.of_nat (length (gcur c v a)))%N.
Proof.
  intros Hcfg Hb G Hw.
  assert (Ho : basic_op o) by (destruct Hw as [->| ->]; exact Logic.I).
  destruct a as [p|].
  - cbn [LGRel] in G. pose proof (lstep_rel _ _ _ _ L c (CSize m) x (Some p) o Hcfg G Ho) as S.
    destruct (step x o) as [x' ob]. destruct S as [_ [C _]]. cbn [snd]. rewrite (C b m Hw eq_refl).
    destruct p as [cl cu]. reflexivity.
  - cbn [LGRel] in G. rewrite (lpre_sync _ _ _ _ L dview c (CSize m) x v o Hcfg G).
    pose proof G as [Ht [Ha [Es [Q D]]]]. cbn [gcur].
    destruct Hw as [->| ->]; cbn [sync_step].
    + destruct (lfirst_write_size c m x v (s_tl x ++ b) Hcfg Hb G) as [w' [s' E]].
      rewrite Es. cbn [new_flw f_poisoned]. fold (new_flw c). rewrite E. reflexivity.
    + destruct (lfirst_write_size c m x v b Hcfg Hb G) as [w' [s' E]].
      rewrite Es. cbn [new_flw f_poisoned]. fold (new_flw c). rewrite E. reflexivity.
Qed.

Lemma lgrun_size c m v : cfgp c (CSize m) -> (N.of_nat (length (closed_of v)) <= u32_max)%N ->
  forall ops x a, LGRel ns cur Inv dview c (CSize m) x v a -> Forall basic_op ops ->
  g_run c v a ops (snd (run x ops)) = gs_run m c v a ops
  /\ (forall i o, nth_error ops i = Some o -> forall b, (o = OWrite b \/ o = OPlain b) ->
        nth_error (snd (run x ops)) i
        = Some (ObsRes 0 (m <? N.of_nat (length (gcur c v (gs_run m c v a (firstn i ops)))))%N)).
Proof.
  intros Hcfg Hbd. induction ops as [|o r IH]; intros x a G Hb.
  - split; [reflexivity|]. intros i o H. destruct i; discriminate.
  - cbn [run]. inversion Hb as [|o' r' Ho Hr]; subst.
    pose proof (lgstep_rel _ _ _ _ L _ _ RL c (CSize m) x v a o Hcfg Hbd G Ho) as S.
    pose proof (fun b Hw => lgstep_size c m x v a o b Hcfg Hbd G Hw) as C1.
    destruct (step x o) as [x1 ob] eqn:Est. cbn [snd] in C1.
    specialize (IH x1 _ S Hr). destruct (run x1 r) as [x2 obs] eqn:Er. cbn [snd] in *.
    assert (Erot : g_step c v a o (rot_of ob) = g_step c v a o (m <? N.of_nat (length (gcur c v a)))%N).
    { destruct o; try (destruct a; reflexivity).
      - rewrite (C1 b (or_introl eq_refl)). reflexivity.
      - rewrite (C1 b (or_intror eq_refl)). reflexivity. }
    cbn [g_run gs_run]. rewrite <- Erot. destruct IH as [IH1 IH2]. split; [exact IH1|].
    intros i o0 Hi b Hw. destruct i as [|i].
    + cbn in Hi. injection Hi as <-. cbn [nth_error firstn gs_run]. f_equal. apply (C1 b Hw).
    + cbn [nth_error firstn gs_run] in *. rewrite <- Erot. apply (IH2 i o0 Hi b Hw).
Qed.

(* ---- one whole run ---- *)
Lemma lone_run_size c m x v ops :
  cfgp c (CSize m) -> (N.of_nat (length (closed_of v)) <= u32_max)%N ->
  Forall basic_op ops -> LIdle dview c x v ->
  exists v', LIdle dview c (fst (run x (OStart c :: ops ++ [OStop]))) v'
    /\ files_of v' = files_after (files_of v) (c_append c) m ops
    /\ length (closed_of v') <= length (closed_of v) + S (length ops).
Proof.
  intros Hcfg Hb Hops Id. cbn [run]. pose proof (lstart_pre dview c x v Id) as P0.
  destruct (step x (OStart c)) as [x0 ob0]. cbn [fst] in P0.
  rewrite run_app.
  pose proof (lgrun_rel _ _ _ _ L _ _ RL c (CSize m) v Hcfg Hb ops x0 None P0 Hops) as G1.
  pose proof (lgrun_size c m v Hcfg Hb ops x0 None P0 Hops) as [Hs _].
  destruct (run x0 ops) as [x1 obs1]. cbn [fst snd] in *.
  pose proof (lstop_idle _ _ _ _ L _ _ RL c (CSize m) x1 v _ Hcfg G1) as S. cbn [run]. destruct (step x1 OStop) as [x2 ob2]. cbn [fst] in *.
  exists (gview v (g_run c v None ops obs1)). split; [exact S|]. split.
  - rewrite Hs. apply gview_files. exact Hops.
  - pose proof (gview_pot v (g_run c v None ops obs1)). pose proof (g_run_pot c v ops None obs1). cbn [gpot] in *. lia.
Qed.

Lemma lone_run_flags c m x v ops i o b :
  cfgp c (CSize m) -> (N.of_nat (length (closed_of v)) <= u32_max)%N ->
  Forall basic_op ops -> LIdle dview c x v ->
  nth_error ops i = Some o -> (o = OWrite b \/ o = OPlain b) ->
  nth_error (snd (run x (OStart c :: ops))) (S i)
  = Some (ObsRes 0 (m <? N.of_nat (length (cur_before m (start_of (files_of v) (c_append c)) (firstn i ops))))%N).
Proof.
  intros Hcfg Hb Hops Id Hi Hw. cbn [run]. pose proof (lstart_pre dview c x v Id) as P0.
  destruct (step x (OStart c)) as [x0 ob0]. cbn [fst] in P0.
  pose proof (lgrun_size c m v Hcfg Hb ops x0 None P0 Hops) as [_ Hr].
  destruct (run x0 ops) as [x1 obs1]. cbn [snd nth_error] in *.
  rewrite (Hr i o Hi b Hw), gcur_before. reflexivity.
Qed.

Definition lsrun_ok (sp : file_spec) (r : config * list op) : Prop :=
  c_spec (fst r) = sp /\ (exists m, cfgp (fst r) (CSize m)) /\ Forall basic_op (snd r).

Lemma lruns_size_rel sp : forall rs x v c0, c_spec c0 = sp -> Forall (lsrun_ok sp) rs -> LIdle dview c0 x v ->
  (N.of_nat (length (closed_of v) + length (runs_ops rs)) <= u32_max)%N ->
  exists v', LIdle dview c0 (fst (run x (runs_ops rs))) v' /\ files_of v' = runs_files (files_of v) rs
    /\ length (closed_of v') <= length (closed_of v) + length (runs_ops rs).
Proof.
  induction rs as [|[c ops] r IH]; intros x v c0 Ec0 Hrs Id Hb.
  - exists v. split; [exact Id|]. split; [reflexivity|]. cbn [runs_ops length]. lia.
  - inversion Hrs as [|r0 r' [Ec [[m Hcfg] Hops]] Hr]; subst. cbn [fst snd] in *.
    rewrite runs_ops_cons in *.
    assert (Esp : c_spec c0 = c_spec c) by congruence.
    assert (Hb1 : (N.of_nat (length (closed_of v)) <= u32_max)%N) by lia.
    destruct (lone_run_size c m x v ops Hcfg Hb1 Hops (lidle_spec _ _ _ _ _ _ RL c0 c x v Esp Id)) as [v1 [Id1 [F1 P1]]].
    rewrite run_app. destruct (run x (OStart c :: ops ++ [OStop])) as [x1 obs1]. cbn [fst] in Id1.
    assert (Hb2 : (N.of_nat (length (closed_of v1) + length (runs_ops r)) <= u32_max)%N).
    { rewrite app_length in Hb. cbn [length] in Hb. rewrite app_length in Hb. cbn [length] in Hb. lia. }
    destruct (IH x1 v1 c0 eq_refl Hr (lidle_spec _ _ _ _ _ _ RL c c0 x1 v1 (eq_sym Esp) Id1) Hb2) as [v2 [Id2 [F2 P2]]].
    destruct (run x1 (runs_ops r)) as [x2 obs2]. cbn [fst] in *.
    exists v2. split; [exact Id2|]. split.
    + rewrite F2, F1. cbn [runs_files]. destruct (rl_crit _ _ _ _ _ _ RL c _ Hcfg) as [nam [k ->]]. reflexivity.
    + rewrite app_length. cbn [length]. rewrite app_length. cbn [length]. lia.
Qed.

(* C08 for any number of runs on one directory, each with its own limit, buffer capacity and append setting:
   the directory reads the fold of files_after over the runs. *)
Lemma lruns_partition sp x0 rs : LIdle dview (sp_config sp) x0 None ->
  (N.of_nat (length (runs_ops rs)) <= u32_max)%N ->
  Forall (fun r => c_spec (fst r) = sp /\ (exists m, cfgp (fst r) (CSize m)) /\ Forall basic_op (snd r)) rs ->
  forall c, c_spec c = sp ->
    rd c (wfs (s_w (fst (run x0 (runs_ops rs))))) (runs_files [] rs).
Proof.
  intros Id0 Hb Hrs c Ec.
  destruct (lruns_size_rel sp rs x0 None (sp_config sp) eq_refl Hrs Id0 Hb) as [v' [Id [F _]]].
  destruct (lidle_reads _ _ _ _ _ _ RL sp (sp_config sp) _ v' eq_refl Id) as [R _].
  cbn [files_of] in F. rewrite <- F. apply R. exact Ec.
Qed.

(* the rotation flag of every write of a run that follows any number of runs: the bytes counted are those of the
   reader's view of this run, which starts with the content found in rCURRENT iff the run appends *)
Lemma lruns_rotates_iff sp x0 rs c m ops i o b : LIdle dview (sp_config sp) x0 None ->
  (N.of_nat (length (runs_ops rs)) <= u32_max)%N ->
  Forall (fun r => c_spec (fst r) = sp /\ (exists m, cfgp (fst r) (CSize m)) /\ Forall basic_op (snd r)) rs ->
  c_spec c = sp -> cfgp c (CSize m) -> Forall basic_op ops ->
  nth_error ops i = Some o -> (o = OWrite b \/ o = OPlain b) ->
  nth_error (snd (run (fst (run x0 (runs_ops rs))) (OStart c :: ops))) (S i)
  = Some (ObsRes 0 (m <? N.of_nat (length (cur_before m (start_of (runs_files [] rs) (c_append c)) (firstn i ops))))%N).
Proof.
  intros Id0 Hb Hrs Ec Hcfg Hops Hi Hw.
  destruct (lruns_size_rel sp rs x0 None (sp_config sp) eq_refl Hrs Id0 Hb) as [v' [Id [F P]]].
  cbn [files_of closed_of length] in F, P. rewrite <- F.
  apply (lone_run_flags c m _ v' ops i o b); try assumption; [lia|].
  apply (lidle_spec _ _ _ _ _ _ RL (sp_config sp) c); [symmetry; exact Ec | exact Id].
Qed.

Lemma two_runs_split c1 c2 (ops1 ops2 : list op) (tl : list op) :
  OStart c1 :: ops1 ++ [OStop] ++ OStart c2 :: ops2 ++ tl = (OStart c1 :: ops1 ++ [OStop]) ++ (OStart c2 :: ops2 ++ tl).
Proof. cbn [app]. rewrite <- app_assoc. reflexivity. Qed.

(* the first run, from the empty directory *)
Lemma lfirst_run_idle c1 m1 x0 ops1 : LIdle dview c1 x0 None ->
  cfgp c1 (CSize m1) -> Forall basic_op ops1 ->
  exists v1, LIdle dview c1 (fst (run x0 (OStart c1 :: ops1 ++ [OStop]))) v1
    /\ files_of v1 = expected_files m1 None (items false ops1).
Proof.
  intros Id0 Hcfg Hops.
  assert (Hb0 : (N.of_nat (length (closed_of None)) <= u32_max)%N) by (cbn; lia).
  destruct (lone_run_size c1 m1 x0 None ops1 Hcfg Hb0 Hops Id0) as [v1 [Id1 [F1 _]]].
  exists v1. split; [exact Id1|]. rewrite F1. unfold files_after. cbn [files_of app]. destruct (c_append c1); reflexivity.
Qed.

Lemma files_of_some_inv v cl cu : files_of v = cl ++ [cu] -> v = Some (cl, cu).
Proof.
  destruct v as [[cl' cu']|]; cbn [files_of]; intros E; [|destruct cl; discriminate].
  apply app_inj_tail in E. destruct E as [-> ->]. reflexivity.
Qed.

(* 1. Two runs, the second one appending: the content found in rCURRENT counts from the first write on. *)
Lemma lappend_partition c1 c2 m1 m2 x0 ops1 ops2 closed1 cur1 : LIdle dview c1 x0 None ->
  cfgp c1 (CSize m1) -> cfgp c2 (CSize m2) -> c_spec c1 = c_spec c2 -> c_append c2 = true ->
  Forall basic_op ops1 -> Forall basic_op ops2 ->
  expected_files m1 None (items false ops1) = closed1 ++ [cur1] -> (N.of_nat (length closed1) <= u32_max)%N ->
  rd c2 (wfs (s_w (fst (run x0 (OStart c1 :: ops1 ++ [OStop] ++ OStart c2 :: ops2 ++ [OStop])))))
        (closed1 ++ expected_files m2 (Some cur1) (items false ops2)).
Proof.
  intros Id0 Hcfg1 Hcfg2 Esp Happ Hops1 Hops2 E1 Hb.
  destruct (lfirst_run_idle c1 m1 x0 ops1 Id0 Hcfg1 Hops1) as [v1 [Id1 F1]].
  rewrite E1 in F1. apply files_of_some_inv in F1. subst v1.
  rewrite two_runs_split, run_app. destruct (run x0 (OStart c1 :: ops1 ++ [OStop])) as [x1 obs1]. cbn [fst] in Id1.
  destruct (lone_run_size c2 m2 x1 (Some (closed1, cur1)) ops2 Hcfg2 Hb Hops2 (lidle_spec _ _ _ _ _ _ RL c1 c2 x1 _ Esp Id1)) as [v2 [Id2 [F2 _]]].
  destruct (run x1 (OStart c2 :: ops2 ++ [OStop])) as [x2 obs2]. cbn [fst] in *.
  destruct (lidle_reads _ _ _ _ _ _ RL (c_spec c2) c2 x2 v2 eq_refl Id2) as [R _].
  unfold files_after in F2. rewrite Happ in F2. cbn [files_of] in F2.
  destruct (closed1 ++ [cur1]) eqn:E0; [destruct closed1; discriminate|]. rewrite <- E0 in F2.
  rewrite removelast_last, last_last in F2. rewrite <- F2. apply R. reflexivity.
Qed.

(* the rotation flags of the appending run.  The operations before the first write of the run do not count
   (from_first_write): the writer opens rCURRENT at its first write, a trigger before that does nothing. *)
Lemma lappend_rotates_iff c1 c2 m1 m2 x0 ops1 ops2 closed1 cur1 i o b : LIdle dview c1 x0 None ->
  cfgp c1 (CSize m1) -> cfgp c2 (CSize m2) -> c_spec c1 = c_spec c2 -> c_append c2 = true ->
  Forall basic_op ops1 -> Forall basic_op ops2 ->
  expected_files m1 None (items false ops1) = closed1 ++ [cur1] -> (N.of_nat (length closed1) <= u32_max)%N ->
  nth_error ops2 i = Some o -> (o = OWrite b \/ o = OPlain b) ->
  nth_error (snd (run (fst (run x0 (OStart c1 :: ops1 ++ [OStop]))) (OStart c2 :: ops2))) (S i)
  = Some (ObsRes 0 (m2 <? N.of_nat (length (cur_of (s_run m2 (Some ([], cur1)) (from_first_write (firstn i ops2))))))%N).
Proof.
  intros Id0 Hcfg1 Hcfg2 Esp Happ Hops1 Hops2 E1 Hb Hi Hw.
  destruct (lfirst_run_idle c1 m1 x0 ops1 Id0 Hcfg1 Hops1) as [v1 [Id1 F1]].
  rewrite E1 in F1. apply files_of_some_inv in F1. subst v1.
  rewrite (lone_run_flags c2 m2 _ (Some (closed1, cur1)) ops2 i o b Hcfg2 Hb Hops2 (lidle_spec _ _ _ _ _ _ RL c1 c2 _ _ Esp Id1) Hi Hw).
  unfold start_of. rewrite Happ. cbn [files_of].
  destruct (closed1 ++ [cur1]) eqn:E0; [destruct closed1; discriminate|]. rewrite <- E0, last_last. reflexivity.
Qed.

(* 2. Two runs, the second one NOT appending: whatever the first run left (also nothing) stays; rCURRENT of run 1 is
   closed under the next number when run 2 writes for the first time; the files of run 2 are those of a fresh start. *)
Lemma lnoappend_partition c1 c2 m1 m2 x0 ops1 ops2 : LIdle dview c1 x0 None ->
  cfgp c1 (CSize m1) -> cfgp c2 (CSize m2) -> c_spec c1 = c_spec c2 -> c_append c2 = false ->
  Forall basic_op ops1 -> Forall basic_op ops2 ->
  (N.of_nat (length (expected_files m1 None (items false ops1))) <= u32_max)%N ->
  rd c2 (wfs (s_w (fst (run x0 (OStart c1 :: ops1 ++ [OStop] ++ OStart c2 :: ops2 ++ [OStop])))))
        (expected_files m1 None (items false ops1) ++ expected_files m2 None (items false ops2)).
Proof.
  intros Id0 Hcfg1 Hcfg2 Esp Happ Hops1 Hops2 Hb.
  destruct (lfirst_run_idle c1 m1 x0 ops1 Id0 Hcfg1 Hops1) as [v1 [Id1 F1]].
  rewrite two_runs_split, run_app. destruct (run x0 (OStart c1 :: ops1 ++ [OStop])) as [x1 obs1]. cbn [fst] in Id1.
  assert (Hb1 : (N.of_nat (length (closed_of v1)) <= u32_max)%N).
  { rewrite <- F1 in Hb. destruct v1 as [[cl cu]|]; cbn [closed_of files_of length] in *; [|lia].
    rewrite app_length in Hb. lia. }
  destruct (lone_run_size c2 m2 x1 v1 ops2 Hcfg2 Hb1 Hops2 (lidle_spec _ _ _ _ _ _ RL c1 c2 x1 _ Esp Id1)) as [v2 [Id2 [F2 _]]].
  destruct (run x1 (OStart c2 :: ops2 ++ [OStop])) as [x2 obs2]. cbn [fst] in *.
  destruct (lidle_reads _ _ _ _ _ _ RL (c_spec c2) c2 x2 v2 eq_refl Id2) as [R _].
  unfold files_after in F2. rewrite Happ, F1 in F2. rewrite <- F2. apply R. reflexivity.
Qed.

(* ... and its flags are those of a fresh start: nothing found counts *)
Lemma lnoappend_rotates_iff c1 c2 m1 m2 x0 ops1 ops2 i o b : LIdle dview c1 x0 None ->
  cfgp c1 (CSize m1) -> cfgp c2 (CSize m2) -> c_spec c1 = c_spec c2 -> c_append c2 = false ->
  Forall basic_op ops1 -> Forall basic_op ops2 ->
  (N.of_nat (length (expected_files m1 None (items false ops1))) <= u32_max)%N ->
  nth_error ops2 i = Some o -> (o = OWrite b \/ o = OPlain b) ->
  nth_error (snd (run (fst (run x0 (OStart c1 :: ops1 ++ [OStop]))) (OStart c2 :: ops2))) (S i)
  = Some (ObsRes 0 (m2 <? N.of_nat (length (cur_of (s_run m2 None (firstn i ops2)))))%N).
Proof.
  intros Id0 Hcfg1 Hcfg2 Esp Happ Hops1 Hops2 Hb Hi Hw.
  destruct (lfirst_run_idle c1 m1 x0 ops1 Id0 Hcfg1 Hops1) as [v1 [Id1 F1]].
  assert (Hb1 : (N.of_nat (length (closed_of v1)) <= u32_max)%N).
  { rewrite <- F1 in Hb. destruct v1 as [[cl cu]|]; cbn [closed_of files_of length] in *; [|lia].
    rewrite app_length in Hb. lia. }
  rewrite (lone_run_flags c2 m2 _ v1 ops2 i o b Hcfg2 Hb1 Hops2 (lidle_spec _ _ _ _ _ _ RL c1 c2 _ _ Esp Id1) Hi Hw).
  unfold start_of. rewrite Happ. reflexivity.
Qed.

Lemma lpartition_any_start c m x v ops :
  cfgp c (CSize m) -> (N.of_nat (length (closed_of v)) <= u32_max)%N -> Forall basic_op ops -> LIdle dview c x v ->
  rd c (wfs (s_w (fst (run x (OStart c :: ops ++ [OStop]))))) (files_after (files_of v) (c_append c) m ops).
Proof.
  intros Hcfg Hb Hops Id. destruct (lone_run_size c m x v ops Hcfg Hb Hops Id) as [v' [Id' [F _]]].
  destruct (lidle_reads _ _ _ _ _ _ RL (c_spec c) c _ v' eq_refl Id') as [R _]. rewrite <- F. apply R. reflexivity.
Qed.
End Layout.

Theorem numbers_runs_partition sp t0 off rs :
  (N.of_nat (length (runs_ops rs)) <= u32_max)%N ->
  Forall (fun r => c_spec (fst r) = sp /\ (exists m, numcfg (fst r) (CSize m)) /\ Forall basic_op (snd r)) rs ->
  forall c, c_spec c = sp ->
    reads c (wfs (s_w (fst (run (sys0 t0 off) (runs_ops rs))))) (runs_files [] rs).
Proof. exact (lruns_partition _ _ _ _ num_layout _ _ num_restart sp (sys0 t0 off) rs (idle0 _ t0 off)). Qed.
Print Assumptions numbers_runs_partition.

Theorem numbers_runs_rotates_iff sp t0 off rs c m ops i o b :
  (N.of_nat (length (runs_ops rs)) <= u32_max)%N ->
  Forall (fun r => c_spec (fst r) = sp /\ (exists m, numcfg (fst r) (CSize m)) /\ Forall basic_op (snd r)) rs ->
  c_spec c = sp -> numcfg c (CSize m) -> Forall basic_op ops ->
  nth_error ops i = Some o -> (o = OWrite b \/ o = OPlain b) ->
  nth_error (snd (run (fst (run (sys0 t0 off) (runs_ops rs))) (OStart c :: ops))) (S i)
  = Some (ObsRes 0 (m <? N.of_nat (length (cur_before m (start_of (runs_files [] rs) (c_append c)) (firstn i ops))))%N).
Proof. exact (lruns_rotates_iff _ _ _ _ num_layout _ _ num_restart sp (sys0 t0 off) rs c m ops i o b (idle0 _ t0 off)). Qed.
Print Assumptions numbers_runs_rotates_iff.

Lemma first_run_idle c1 m1 t0 off ops1 :
  numcfg c1 (CSize m1) -> Forall basic_op ops1 ->
  exists v1, Idle c1 (fst (run (sys0 t0 off) (OStart c1 :: ops1 ++ [OStop]))) v1
    /\ files_of v1 = expected_files m1 None (items false ops1).
Proof. exact (lfirst_run_idle _ _ _ _ num_layout _ _ num_restart c1 m1 (sys0 t0 off) ops1 (idle0 c1 t0 off)). Qed.

Theorem numbers_append_partition c1 c2 m1 m2 t0 off ops1 ops2 closed1 cur1 :
  numcfg c1 (CSize m1) -> numcfg c2 (CSize m2) -> c_spec c1 = c_spec c2 -> c_append c2 = true ->
  Forall basic_op ops1 -> Forall basic_op ops2 ->
  expected_files m1 None (items false ops1) = closed1 ++ [cur1] -> (N.of_nat (length closed1) <= u32_max)%N ->
  reads c2 (wfs (s_w (fst (run (sys0 t0 off) (OStart c1 :: ops1 ++ [OStop] ++ OStart c2 :: ops2 ++ [OStop])))))
        (closed1 ++ expected_files m2 (Some cur1) (items false ops2)).
Proof. exact (lappend_partition _ _ _ _ num_layout _ _ num_restart c1 c2 m1 m2 (sys0 t0 off) ops1 ops2 closed1 cur1 (idle0 c1 t0 off)). Qed.
Print Assumptions numbers_append_partition.

Theorem numbers_append_rotates_iff c1 c2 m1 m2 t0 off ops1 ops2 closed1 cur1 i o b :
  numcfg c1 (CSize m1) -> numcfg c2 (CSize m2) -> c_spec c1 = c_spec c2 -> c_append c2 = true ->
  Forall basic_op ops1 -> Forall basic_op ops2 ->
  expected_files m1 None (items false ops1) = closed1 ++ [cur1] -> (N.of_nat (length closed1) <= u32_max)%N ->
  nth_error ops2 i = Some o -> (o = OWrite b \/ o = OPlain b) ->
  nth_error (snd (run (fst (run (sys0 t0 off) (OStart c1 :: ops1 ++ [OStop]))) (OStart c2 :: ops2))) (S i)
  = Some (ObsRes 0 (m2 <? N.of_nat (length (cur_of (s_run m2 (Some ([], cur1)) (from_first_write (firstn i ops2))))))%N).
Proof. exact (lappend_rotates_iff _ _ _ _ num_layout _ _ num_restart c1 c2 m1 m2 (sys0 t0 off) ops1 ops2 closed1 cur1 i o b (idle0 c1 t0 off)). Qed.
Print Assumptions numbers_append_rotates_iff.

Theorem numbers_noappend_partition c1 c2 m1 m2 t0 off ops1 ops2 :
  numcfg c1 (CSize m1) -> numcfg c2 (CSize m2) -> c_spec c1 = c_spec c2 -> c_append c2 = false ->
  Forall basic_op ops1 -> Forall basic_op ops2 ->
  (N.of_nat (length (expected_files m1 None (items false ops1))) <= u32_max)%N ->
  reads c2 (wfs (s_w (fst (run (sys0 t0 off) (OStart c1 :: ops1 ++ [OStop] ++ OStart c2 :: ops2 ++ [OStop])))))
        (expected_files m1 None (items false ops1) ++ expected_files m2 None (items false ops2)).
Proof. exact (lnoappend_partition _ _ _ _ num_layout _ _ num_restart c1 c2 m1 m2 (sys0 t0 off) ops1 ops2 (idle0 c1 t0 off)). Qed.
Print Assumptions numbers_noappend_partition.

Theorem numbers_noappend_rotates_iff c1 c2 m1 m2 t0 off ops1 ops2 i o b :
  numcfg c1 (CSize m1) -> numcfg c2 (CSize m2) -> c_spec c1 = c_spec c2 -> c_append c2 = false ->
  Forall basic_op ops1 -> Forall basic_op ops2 ->
  (N.of_nat (length (expected_files m1 None (items false ops1))) <= u32_max)%N ->
  nth_error ops2 i = Some o -> (o = OWrite b \/ o = OPlain b) ->
  nth_error (snd (run (fst (run (sys0 t0 off) (OStart c1 :: ops1 ++ [OStop]))) (OStart c2 :: ops2))) (S i)
  = Some (ObsRes 0 (m2 <? N.of_nat (length (cur_of (s_run m2 None (firstn i ops2)))))%N).
Proof. exact (lnoappend_rotates_iff _ _ _ _ num_layout _ _ num_restart c1 c2 m1 m2 (sys0 t0 off) ops1 ops2 i o b (idle0 c1 t0 off)). Qed.
Print Assumptions numbers_noappend_rotates_iff.

(* ================================================================== examples (non-vacuity) and findings *)
Open Scope string_scope.
Definition ap_c1 : config := ex_cfg (ex_sp "log") false (CSize 3) None.
Definition ap_c2 : config := ex_cfg (ex_sp "log") true (CSize 5) (Some 3%nat).       (* appending, buffered *)
Definition ap_c2n : config := ex_cfg (ex_sp "log") false (CSize 5) (Some 3%nat).     (* not appending *)
Definition ap_ops1 : list op := [OWrite (bs "abcd"); OWrite (bs "ef"); OTrigger; OWrite (bs "ghij")].
Definition ap_ops2 : list op := [OFlush; OWrite (bs "kl"); OTick 7; OWrite (bs "mn"); OPlain (bs "op")].

Lemma ap_cfg_ok sp app m cap : fts sp = false -> numcfg (ex_cfg sp app (CSize m) cap) (CSize m).
Proof. intros H. repeat split. exact H. Qed.
Lemma ap_ops1_basic : Forall basic_op ap_ops1. Proof. repeat constructor. Qed.
Lemma ap_ops2_basic : Forall basic_op ap_ops2. Proof. repeat constructor. Qed.

(* run 1 leaves abcd | ef | ghij (rCURRENT = ghij, 4 bytes); run 2 (limit 5, append): "kl" is appended to the 4 bytes
   found (no rotation: 4 <= 5), "mn" rotates because the 4 bytes found count (6 > 5); a fresh start would not rotate
   here (2 <= 5) *)
Example append_partition_instance :
  expected_files 3 None (items false ap_ops1) = [bs "abcd"; bs "ef"] ++ [bs "ghij"]
  /\ expected_files 5 (Some (bs "ghij")) (items false ap_ops2) = [bs "ghijkl"; bs "mnop"]
  /\ expected_files 5 None (items false ap_ops2) = [bs "klmnop"]
  /\ reads ap_c2 (wfs (s_w (fst (run (sys0 0 0) (OStart ap_c1 :: ap_ops1 ++ [OStop] ++ OStart ap_c2 :: ap_ops2 ++ [OStop])))))
           ([bs "abcd"; bs "ef"] ++ [bs "ghijkl"; bs "mnop"]).
Proof.
  split; [vm_compute; reflexivity|]. split; [vm_compute; reflexivity|]. split; [vm_compute; reflexivity|].
  change [bs "ghijkl"; bs "mnop"] with (expected_files 5 (Some (bs "ghij")) (items false ap_ops2)).
  apply (numbers_append_partition ap_c1 ap_c2 3 5 0 0 ap_ops1 ap_ops2 [bs "abcd"; bs "ef"] (bs "ghij")).
  - apply ap_cfg_ok. reflexivity.
  - apply ap_cfg_ok. reflexivity.
  - reflexivity.
  - reflexivity.
  - exact ap_ops1_basic.
  - exact ap_ops2_basic.
  - vm_compute. reflexivity.
  - vm_compute. discriminate.
Qed.

Example append_partition_dir :
  snap_of (fst (run (sys0 0 0) (OStart ap_c1 :: ap_ops1 ++ [OStop] ++ OStart ap_c2 :: ap_ops2 ++ [OStop])))
  = [ (bs "app_r00000.log", 0%N, bs "abcd"); (bs "app_r00001.log", 0%N, bs "ef"); (bs "app_r00002.log", 0%N, bs "ghijkl");
      (bs "app_rCURRENT.log", 0%N, bs "mnop") ].
Proof. vm_compute. reflexivity. Qed.

(* the flags of run 2 as observed, and as the theorem computes them (operation 3 of run 2 is OWrite "mn") *)
Example append_rotates_instance :
  List.map rot_of (snd (run (fst (run (sys0 0 0) (OStart ap_c1 :: ap_ops1 ++ [OStop]))) (OStart ap_c2 :: ap_ops2)))
  = [false; false; false; false; true; false]
  /\ (5 <? N.of_nat (length (cur_of (s_run 5 (Some ([], bs "ghij")) (from_first_write (firstn 3 ap_ops2))))))%N = true
  /\ (5 <? N.of_nat (length (cur_of (s_run 5 None (firstn 3 ap_ops2)))))%N = false.
Proof. vm_compute. repeat split. Qed.

(* FINDING: the statement with the plain s_run (without from_first_write) is false.  A trigger (rotate()) issued on the
   appending writer before its first write does nothing - the writer has not opened rCURRENT yet -, so the content
   found still counts at the first write; s_run started on (Some cur1) would let the trigger close cur1 and predict
   "no rotation".  Limit 3, content found "ghij" (4 bytes): the first write rotates. *)
Definition ap_c2t : config := ex_cfg (ex_sp "log") true (CSize 3) (Some 3%nat).
Definition ap_ops2t : list op := [OTrigger; OWrite (bs "kl")].
Example append_trigger_before_first_write :
  nth_error (snd (run (fst (run (sys0 0 0) (OStart ap_c1 :: ap_ops1 ++ [OStop]))) (OStart ap_c2t :: ap_ops2t))) 2
  = Some (ObsRes 0 true)
  /\ (3 <? N.of_nat (length (cur_of (s_run 3 (Some ([], bs "ghij")) (firstn 1 ap_ops2t)))))%N = false
  /\ (3 <? N.of_nat (length (cur_of (s_run 3 (Some ([], bs "ghij")) (from_first_write (firstn 1 ap_ops2t))))))%N = true
  /\ snap_of (fst (run (sys0 0 0) (OStart ap_c1 :: ap_ops1 ++ [OStop] ++ OStart ap_c2t :: ap_ops2t ++ [OStop])))
     = [ (bs "app_r00000.log", 0%N, bs "abcd"); (bs "app_r00001.log", 0%N, bs "ef"); (bs "app_r00002.log", 0%N, bs "ghij");
         (bs "app_rCURRENT.log", 0%N, bs "kl") ]
  /\ expected_files 3 (Some (bs "ghij")) (items false ap_ops2t) = [bs "ghij"; bs "kl"].
Proof. vm_compute. repeat split. Qed.

(* without append: rCURRENT of run 1 is closed as r00002 and run 2 partitions as from a fresh start *)
Example noappend_partition_instance :
  reads ap_c2n (wfs (s_w (fst (run (sys0 0 0) (OStart ap_c1 :: ap_ops1 ++ [OStop] ++ OStart ap_c2n :: ap_ops2 ++ [OStop])))))
        ([bs "abcd"; bs "ef"; bs "ghij"] ++ [bs "klmnop"]).
Proof.
  change [bs "abcd"; bs "ef"; bs "ghij"] with (expected_files 3 None (items false ap_ops1)).
  change [bs "klmnop"] with (expected_files 5 None (items false ap_ops2)).
  apply (numbers_noappend_partition ap_c1 ap_c2n 3 5 0 0 ap_ops1 ap_ops2).
  - apply ap_cfg_ok. reflexivity.
  - apply ap_cfg_ok. reflexivity.
  - reflexivity.
  - reflexivity.
  - exact ap_ops1_basic.
  - exact ap_ops2_basic.
  - vm_compute. discriminate.
Qed.

Example noappend_partition_dir :
  snap_of (fst (run (sys0 0 0) (OStart ap_c1 :: ap_ops1 ++ [OStop] ++ OStart ap_c2n :: ap_ops2 ++ [OStop])))
  = [ (bs "app_r00000.log", 0%N, bs "abcd"); (bs "app_r00001.log", 0%N, bs "ef"); (bs "app_r00002.log", 0%N, bs "ghij");
      (bs "app_rCURRENT.log", 0%N, bs "klmnop") ]
  /\ List.map rot_of (snd (run (fst (run (sys0 0 0) (OStart ap_c1 :: ap_ops1 ++ [OStop]))) (OStart ap_c2n :: ap_ops2)))
     = [false; false; false; false; false; false].
Proof. vm_compute. split; reflexivity. Qed.

(* WHEN is rCURRENT of the earlier run closed by a run that does not append?  Not when the writer is built, and not by
   flush or rotate(): a run without a write leaves the directory exactly as it found it (first conjunct: rCURRENT still
   holds "ghij"); it is closed at the first write (second conjunct). *)
Example noappend_rotates_at_first_write :
  snap_of (fst (run (sys0 0 0) (OStart ap_c1 :: ap_ops1 ++ [OStop] ++ OStart ap_c2n :: [OFlush; OTrigger; OTick 1] ++ [OStop])))
  = [ (bs "app_r00000.log", 0%N, bs "abcd"); (bs "app_r00001.log", 0%N, bs "ef"); (bs "app_rCURRENT.log", 0%N, bs "ghij") ]
  /\ snap_of (fst (run (sys0 0 0) (OStart ap_c1 :: ap_ops1 ++ [OStop] ++ OStart ap_c2n :: [OFlush; OTrigger; OTick 1; OWrite (bs "k")] ++ [OStop])))
  = [ (bs "app_r00000.log", 0%N, bs "abcd"); (bs "app_r00001.log", 0%N, bs "ef"); (bs "app_r00002.log", 0%N, bs "ghij");
      (bs "app_rCURRENT.log", 0%N, bs "k") ]
  /\ expected_files 5 None (items false [OFlush; OTrigger; OTick 1]) = [].
Proof. vm_compute. repeat split. Qed.

(* four runs: fresh / append / no write at all / no append *)
Definition ap_rs : list (config * list op) :=
  [ (ap_c1, ap_ops1); (ap_c2, ap_ops2); (ap_c2n, [OTrigger; OFlush]); (ex_cfg (ex_sp "log") false (CSize 1) None, [OPlain (bs "qr"); OWrite (bs "s")]) ].

Example runs_partition_instance :
  runs_files [] ap_rs = [bs "abcd"; bs "ef"; bs "ghijkl"; bs "mnop"; bs "qr"; bs "s"]
  /\ forall c, c_spec c = ex_sp "log" ->
       reads c (wfs (s_w (fst (run (sys0 0 0) (runs_ops ap_rs))))) [bs "abcd"; bs "ef"; bs "ghijkl"; bs "mnop"; bs "qr"; bs "s"].
Proof.
  split; [vm_compute; reflexivity|].
  change [bs "abcd"; bs "ef"; bs "ghijkl"; bs "mnop"; bs "qr"; bs "s"] with (runs_files [] ap_rs).
  apply (numbers_runs_partition (ex_sp "log") 0 0 ap_rs).
  - vm_compute. discriminate.
  - unfold ap_rs. repeat (apply Forall_cons; [split; [reflexivity|]; split; [eexists; apply ap_cfg_ok; reflexivity|]; repeat constructor|]).
    apply Forall_nil.
Qed.

Example runs_partition_dir :
  snap_of (fst (run (sys0 0 0) (runs_ops ap_rs)))
  = [ (bs "app_r00000.log", 0%N, bs "abcd"); (bs "app_r00001.log", 0%N, bs "ef"); (bs "app_r00002.log", 0%N, bs "ghijkl");
      (bs "app_r00003.log", 0%N, bs "mnop"); (bs "app_r00004.log", 0%N, bs "qr"); (bs "app_rCURRENT.log", 0%N, bs "s") ].
Proof. vm_compute. reflexivity. Qed.

(* ================================================================== any start state *)
(* The same for ANY directory a writer may find (Idle: no writer, the directory reads files_of v - closed files of any
   number and content, rCURRENT of any size - or is empty), not only one produced by a particular earlier run. *)
Theorem numbers_partition_any_start c m x v ops :
  numcfg c (CSize m) -> (N.of_nat (length (closed_of v)) <= u32_max)%N -> Forall basic_op ops -> Idle c x v ->
  reads c (wfs (s_w (fst (run x (OStart c :: ops ++ [OStop]))))) (files_after (files_of v) (c_append c) m ops).
Proof. exact (lpartition_any_start _ _ _ _ num_layout _ _ num_restart c m x v ops). Qed.
Print Assumptions numbers_partition_any_start.

Theorem numbers_rotates_iff_any_start c m x v ops i o b :
  numcfg c (CSize m) -> (N.of_nat (length (closed_of v)) <= u32_max)%N -> Forall basic_op ops -> Idle c x v ->
  nth_error ops i = Some o -> (o = OWrite b \/ o = OPlain b) ->
  nth_error (snd (run x (OStart c :: ops))) (S i)
  = Some (ObsRes 0 (m <? N.of_nat (length (cur_before m (start_of (files_of v) (c_append c)) (firstn i ops))))%N).
Proof. exact (lone_run_flags _ _ _ _ num_layout _ _ num_restart c m x v ops i o b). Qed.
Print Assumptions numbers_rotates_iff_any_start.

(* non-vacuity: the state after run 1 of the examples is such a start state *)
Example any_start_instance :
  exists v, Idle ap_c2 (fst (run (sys0 0 0) (OStart ap_c1 :: ap_ops1 ++ [OStop]))) v
            /\ files_of v = [bs "abcd"; bs "ef"; bs "ghij"]
            /\ files_after (files_of v) (c_append ap_c2) 5 ap_ops2 = [bs "abcd"; bs "ef"; bs "ghijkl"; bs "mnop"].
Proof.
  destruct (first_run_idle ap_c1 3 0 0 ap_ops1 (ap_cfg_ok (ex_sp "log") false 3 None eq_refl) ap_ops1_basic) as [v [Id F]].
  exists v. split; [apply (idle_spec ap_c1 ap_c2); [reflexivity | exact Id]|].
  rewrite F. split; vm_compute; reflexivity.
Qed.
