(* Numbers naming with a cleanup strategy: SEQUENCES OF RUNS on one directory (C06 with cleanup).  Every run has its own
   criterion, buffer capacity, append flag and history; all runs have the same file specification and the same cleanup
   strategy k with limits (n, m).  Part 1: one run on the directory that earlier runs left behind, on the level of the
   view (everything that was closed so far, in the order of closing, and the current file - as in NumRestart.v, where
   there is no cleanup); the directory holds the current file, the newest n closed files as they are and the next m
   as archives.
   The restart part of NumCleanupKillRestart.v (initialize_xdir, first_write_k) does the work on the file system.

   Findings (see NumCleanupRestartEx.v for the computed examples):
   - a run without append that finds rCURRENT closes it under the next number AT ONCE (with its first write) and runs
     the cleanup before anything is written: the oldest survivor may be removed although the new run has not rotated;
   - a run that is started and stopped without a write does not touch the directory (no rotation, no cleanup);
   - with both limits 0 no closed file is ever left, so the next writer finds no index in the directory and starts
     again at r00000: the numbers of the closed files are NOT unique over the history (harmless as long as the strategy
     stays the same: the file is removed by the cleanup that follows its closing). *)
Require Import FL.Base.Bytes FL.Fs.Fs FL.Fs.FsFacts FL.Flw.Model FL.Flw.ModelFacts FL.Flw.NumInv FL.Flw.Run
  FL.Flw.NumRun FL.Flw.CleanupFacts FL.Flw.NumCleanupNames FL.Flw.NumCleanupStep FL.Flw.NumCleanupRun
  FL.Flw.NumRestart FL.Flw.NumKillRestart FL.Flw.NumCleanupKillDir FL.Flw.NumCleanupKill FL.Flw.NumCleanupKillRestart.
From Coq Require Import Lia.
Open Scope nat_scope.

(* ------------------------------------------------------------------ the names depend on the file spec only *)
Lemma gname_spec_eq c c' i : c_spec c = c_spec c' -> gname c i = gname c' i.
Proof. intros E. unfold gname. rewrite (rname_spec_eq c c' i E). reflexivity. Qed.

Lemma kdir_spec c c' f cl lo mid : c_spec c = c_spec c' -> kdir c f cl lo mid -> kdir c' f cl lo mid.
Proof.
  intros E [H1 H2 H3 H4 H5]. constructor.
  - exact H1.
  - exact H2.
  - intros i Hi. rewrite <- (rname_spec_eq c c' i E). apply H3. exact Hi.
  - intros i Hi. rewrite <- (gname_spec_eq c c' i E). apply H4. exact Hi.
  - intros x j Lx. destruct (H5 _ _ Lx) as [->|[(i & Hi & ->)|(i & Hi & ->)]].
    + left. apply cname_spec_eq. exact E.
    + right. left. exists i. split; [exact Hi | apply rname_spec_eq; exact E].
    + right. right. exists i. split; [exact Hi | apply gname_spec_eq; exact E].
Qed.

Lemma kreader_view_spec c c' f cl cu lo mid : c_spec c = c_spec c' ->
  kreader_view c f cl cu lo mid -> kreader_view c' f cl cu lo mid.
Proof.
  intros E [KD Hc]. split; [exact (kdir_spec c c' f cl lo mid E KD)|].
  rewrite <- (cname_spec_eq c c' E). exact Hc.
Qed.

(* ------------------------------------------------------------------ a writer between start and first write *)
(* D: what is known of the directory.  A writer that has been started and has not written yet has not looked at it: *)
Definition idle_sys (D : fs -> Prop) (x : sys) : Prop :=
  s_tl x = [] /\ wacts (s_w x) = 0 /\ s_flw x = None /\ quiet (s_w x) /\ D (wfs (s_w x)).
Definition pre_sys (c : config) (D : fs -> Prop) (x : sys) : Prop :=
  s_tl x = [] /\ wacts (s_w x) = 0 /\ s_flw x = Some (new_flw c) /\ quiet (s_w x) /\ D (wfs (s_w x)).

Lemma start_pre_sys c D x : idle_sys D x -> pre_sys c D (fst (step x (OStart c))).
Proof.
  intros (Ht & Ha & Es & Q & HD). unfold step, apply_start. rewrite Es. unfold step_core. rewrite Es. cbn [sync_step fst].
  split; [exact Ht|]. split; [exact Ha|]. split; [reflexivity|]. split; [exact Q | exact HD].
Qed.

Lemma step_sync_pre c crit k D x o : numkcfg c crit k -> pre_sys c D x -> step x o = sync_step x o.
Proof. intros (_ & Hts & _ & Ha & _) (_ & _ & Es & _). apply (step_sync_cfg x o (new_flw c) Es); assumption. Qed.

(* one basic operation: a write is the first write, everything else leaves the writer as it is.  G: the relation of the
   run, which for the view None is pre_sys *)
Lemma pre_step c crit k D (G : sys -> aview -> Prop) v x o :
  numkcfg c crit k -> pre_sys c D x -> basic_op o ->
  (forall y, pre_sys c D y -> G y None) ->
  (forall b, exists w' s' rot, write_buffer (new_flw c) (s_w x) b = (Ok tt, w', s', rot)
     /\ G {| s_flw := Some s'; s_w := w'; s_tl := []; s_dead := s_dead x |} (a_step (Some (init_view c v)) (OWrite b) rot)) ->
  let '(x', ob) := step x o in G x' (g_step c v None o (rot_of ob)).
Proof.
  intros Hcfg P Ho GP FW. rewrite (step_sync_pre c crit k D x o Hcfg P). pose proof P as (Ht & Ha & Es & Q & HD).
  destruct o; try contradiction; cbn [sync_step].
  - (* OWrite *)
    destruct (FW (s_tl x ++ b)) as (w' & s' & rot & E & R').
    rewrite Es. cbn [new_flw f_poisoned]. fold (new_flw c). rewrite E. cbn [rot_of g_step].
    rewrite Ht in R'. exact R'.
  - (* OPlain *)
    destruct (FW b) as (w' & s' & rot & E & R').
    rewrite Es. cbn [new_flw f_poisoned]. fold (new_flw c). rewrite E. cbn [rot_of g_step code_of]. rewrite Ht. exact R'.
  - (* OFlush *)
    rewrite Es. cbn [new_flw f_poisoned flush_state f_inner rot_of g_step]. apply GP.
    split; [exact Ht|]. split; [exact Ha|]. split; [reflexivity|]. split; [exact Q | exact HD].
  - (* OTrigger *)
    rewrite Es. cbn [new_flw f_poisoned f_cfg f_inner mount_next with_inner rot_of g_step code_of]. apply GP.
    split; [exact Ht|]. split; [exact Ha|]. split; [reflexivity|]. split; [exact Q | exact HD].
  - (* OTick *)
    cbn [rot_of g_step]. apply GP. split; [exact Ht|]. split; [exact Ha|]. split; [exact Es|].
    split; [apply quiet_set_now; exact Q | exact HD].
  - (* OSnap *)
    cbn [rot_of g_step]. apply GP. exact P.
Qed.

Lemma grun_inv c v (G : sys -> aview -> Prop) :
  (forall x a o, G x a -> basic_op o -> let '(x', ob) := step x o in G x' (g_step c v a o (rot_of ob))) ->
  forall ops x a, G x a -> Forall basic_op ops -> G (fst (run x ops)) (g_run c v a ops (snd (run x ops))).
Proof.
  intros St. induction ops as [|o r IH]; intros x a HG Hbo; [exact HG|].
  cbn [run]. inversion Hbo as [|o' r' Ho Hr]; subst.
  pose proof (St x a o HG Ho) as S. destruct (step x o) as [x1 ob].
  specialize (IH x1 _ S Hr). destruct (run x1 r) as [x2 obs]. exact IH.
Qed.

(* ------------------------------------------------------------------ the directory between two writers *)
(* v: everything that was closed so far, in the order of closing, and the current file (None: nothing has been written yet) *)
Definition kdir_view (c : config) (k : cleanup) (f : fs) (v : aview) : Prop :=
  match v with
  | None => names f = [] /\ inodes f = []
  | Some (cl, cu) => fs_wf f /\ kreader_view c f cl cu (k_lo k (length cl)) (k_mid k (length cl))
  end.

Definition IdleR (c : config) (k : cleanup) (x : sys) (v : aview) : Prop := idle_sys (fun f => kdir_view c k f v) x.
Definition PreR (c : config) (k : cleanup) (x : sys) (v : aview) : Prop := pre_sys c (fun f => kdir_view c k f v) x.

Lemma kdir_view_spec c c' k f v : c_spec c = c_spec c' -> kdir_view c k f v -> kdir_view c' k f v.
Proof.
  intros E. destruct v as [[cl cu]|]; cbn [kdir_view]; [|tauto].
  intros [W R]. split; [exact W | exact (kreader_view_spec c c' f cl cu _ _ E R)].
Qed.

Lemma idler_spec c c' k x v : c_spec c = c_spec c' -> IdleR c k x v -> IdleR c' k x v.
Proof.
  intros E (H1 & H2 & H3 & H4 & H5). split; [exact H1|]. split; [exact H2|]. split; [exact H3|]. split; [exact H4|].
  exact (kdir_view_spec c c' k _ v E H5).
Qed.

(* ------------------------------------------------------------------ a common prefix of the closed files *)
Definition pfx (P : list bytes) (a : aview) : aview :=
  match a with Some (cl, cu) => Some (P ++ cl, cu) | None => None end.

Lemma a_step_pfx P p o rot : a_step (pfx P (Some p)) o rot = pfx P (a_step (Some p) o rot).
Proof.
  destruct p as [cl cu]. destruct o; cbn [a_step pfx]; try reflexivity; try destruct rot; cbn [pfx];
    rewrite <- ?app_assoc; reflexivity.
Qed.

Definition oc_of (v : aview) : option bytes := match v with Some (_, cu) => Some cu | None => None end.

Lemma init_view_pfx c P cl v : closed_of v = P ++ cl ->
  Some (init_view c v) = pfx P (Some (init_view_o c (cl, oc_of v))).
Proof.
  destruct v as [[cl0 cu0]|]; cbn [closed_of oc_of]; intros E.
  - subst cl0. unfold init_view, init_view_o. cbn [fst snd]. destruct (c_append c); cbn [pfx]; rewrite <- ?app_assoc; reflexivity.
  - symmetry in E. apply app_eq_nil in E. destruct E as [-> ->]. reflexivity.
Qed.

(* with both limits 0 the directory never holds a closed file: any list of closed files describes it *)
Lemma kdir_none_left c f cl cl' : kdir c f cl (length cl) (length cl) -> kdir c f cl' (length cl') (length cl').
Proof.
  intros [H1 H2 H3 H4 H5]. constructor.
  - lia.
  - exact H2.
  - intros i Hi. lia.
  - intros i Hi. lia.
  - intros x j Lx. destruct (H5 _ _ Lx) as [E|[(i & Hi & _)|(i & Hi & _)]]; [left; exact E | lia | lia].
Qed.

Section OneRun.
Variables (c : config) (crit : criterion) (k : cleanup) (n m : nat).
Hypothesis Hcfg : numkcfg c crit k.
Hypothesis Hk : klim k = Some (n, m).
Hypothesis Hsfx : sfx_ok (c_spec c).

Lemma kside_r L : kside c k L.
Proof. unfold kside. rewrite Hk. exact Hsfx. Qed.

Lemma kview_pfx f P cl cu : (P = [] \/ n + m = 0) ->
  kreader_view c f cl cu (k_lo k (length cl)) (k_mid k (length cl)) ->
  kreader_view c f (P ++ cl) cu (k_lo k (length (P ++ cl))) (k_mid k (length (P ++ cl))).
Proof.
  intros [->|Hz] V; [exact V|]. destruct V as [KD Hc]. split; [|exact Hc].
  unfold k_lo, k_mid in *. rewrite Hk in *.
  replace (length cl - (n + m)) with (length cl) in KD by lia. replace (length cl - n) with (length cl) in KD by lia.
  replace (length (P ++ cl) - (n + m)) with (length (P ++ cl)) by lia. replace (length (P ++ cl) - n) with (length (P ++ cl)) by lia.
  exact (kdir_none_left c f cl (P ++ cl) KD).
Qed.

(* the directory, with the closed files numbered as the next writer will number them: when no closed file is left
   (possible with both limits 0 only) the numbering starts again *)
Lemma based_of_view f v : kdir_view c k f v ->
  exists P cl, Based c k f cl (oc_of v) /\ closed_of v = P ++ cl /\ (P = [] \/ n + m = 0).
Proof.
  destruct v as [[cl cu]|]; cbn [kdir_view closed_of oc_of].
  - intros [W [KD Hc]]. pose proof (kdir_xdir c f cl _ _ (Some cu) KD Hc) as X.
    pose proof (kd_nodup _ _ _ _ _ KD) as Nd.
    destruct (Nat.lt_ge_cases (k_lo k (length cl)) (length cl)) as [Hlt|Hge].
    + exists [], cl. split; [|split; [reflexivity | left; reflexivity]].
      exists (k_lo k (length cl)), (k_mid k (length cl)), None. split; [|split; [apply uncl_exact | left; exact Hlt]].
      constructor; [exact W | exact Nd | exact X | apply same_at_refl].
    + destruct cl as [|c0 cl0].
      * exists [], []. split; [|split; [reflexivity | left; reflexivity]].
        exists (k_lo k 0), (k_mid k 0), None. split; [|split; [apply uncl_exact | right; reflexivity]].
        constructor; [exact W | exact Nd | exact X | apply same_at_refl].
      * set (cl := c0 :: cl0) in *. assert (Hpos : 0 < length cl) by (cbn; lia).
        assert (Hz : n + m = 0) by (unfold k_lo in Hge; rewrite Hk in Hge; lia).
        exists cl, []. split; [|split; [rewrite app_nil_r; reflexivity | right; exact Hz]].
        exists 0, 0, None. split; [|split; [split; lia | right; reflexivity]].
        constructor; [exact W | exact Nd | | apply same_at_refl].
        apply (xdir_rebase c _ cl (Some cu)).
        unfold k_lo, k_mid in X. rewrite Hk in X.
        replace (length cl - (n + m)) with (length cl) in X by lia. replace (length cl - n) with (length cl) in X by lia.
        exact X.
  - intros [Hn Hi]. exists [], []. split; [|split; [reflexivity | left; reflexivity]].
    destruct (empty_xd c k f Hn) as (lo & mid & red & W & Nd & X & U).
    pose proof (xd_le _ _ _ _ _ _ _ X) as Hle. cbn [length] in Hle.
    exists lo, mid, red. split; [|split; [exact U | right; reflexivity]].
    constructor; [exact W | exact Nd | exact X | apply same_at_refl].
Qed.

(* ------------------------------------------------------------------ the first write *)
(* one run: None as long as nothing has been written; afterwards the view of the writer (RelK), possibly with the
   numbering started again *)
Definition GRelR (x : sys) (v a : aview) : Prop :=
  match a with
  | None => PreR c k x v
  | Some _ => exists P p, a = pfx P (Some p) /\ (P = [] \/ n + m = 0) /\ RelK c crit k x (Some p)
  end.

Lemma first_write_r x v b :
  PreR c k x v -> (N.of_nat (length (closed_of v)) <= u32_max)%N ->
  exists w' s' rot,
    write_buffer (new_flw c) (s_w x) b = (Ok tt, w', s', rot)
    /\ GRelR {| s_flw := Some s'; s_w := w'; s_tl := []; s_dead := s_dead x |} v
             (a_step (Some (init_view c v)) (OWrite b) rot).
Proof.
  intros (Ht & Ha & Es & Q & D) HL.
  destruct (based_of_view _ v D) as (P & cl & B & Ecl & HP).
  assert (PK : PreK c k x (cl, oc_of v)).
  { split; [exact Ht|]. split; [exact Ha|]. split; [exact Es|]. split; [exact Q | exact B]. }
  assert (HL' : (N.of_nat (length (fst (cl, oc_of v))) <= u32_max)%N).
  { cbn [fst]. rewrite Ecl, app_length in HL. lia. }
  destruct (first_write_k c crit k n m Hcfg Hk Hsfx x (cl, oc_of v) b PK HL') as (w' & s' & rot & E & R).
  exists w', s', rot. split; [exact E|].
  rewrite (init_view_pfx c P cl v Ecl), a_step_pfx.
  destruct (a_step_some (init_view_o c (cl, oc_of v)) (OWrite b) rot) as [q Eq]. rewrite Eq in *.
  destruct q as [cl1 cu1]. cbn [pfx GRelR]. exists P, (cl1, cu1). split; [reflexivity|]. split; [exact HP | exact R].
Qed.

Lemma step_sync_prer x v o : PreR c k x v -> step x o = sync_step x o.
Proof. exact (step_sync_pre c crit k _ x o Hcfg). Qed.

Lemma gstep_rel_r x v a o :
  GRelR x v a -> basic_op o -> (N.of_nat (length (closed_of v)) <= u32_max)%N ->
  let '(x', ob) := step x o in GRelR x' v (g_step c v a o (rot_of ob)).
Proof.
  intros G Ho HL. destruct a as [p0|].
  - cbn [GRelR g_step] in *. destruct G as (P & p & Ea & HP & R). rewrite Ea.
    pose proof (step_rel_k c crit k x (Some p) o Hcfg R Ho) as S.
    destruct (step x o) as [x' ob].
    destruct (S (kside_r _)) as [R1 _].
    rewrite a_step_pfx. destruct (a_step_some p o (rot_of ob)) as [q Eq]. rewrite Eq in *.
    destruct q as [cl1 cu1]. cbn [pfx]. exists P, (cl1, cu1). split; [reflexivity|]. split; [exact HP | exact R1].
  - apply (pre_step c crit k _ (fun y a => GRelR y v a) v x o Hcfg G Ho); [intros y Hy; exact Hy|].
    intros b. apply first_write_r; assumption.
Qed.

Lemma grun_rel_r v : (N.of_nat (length (closed_of v)) <= u32_max)%N ->
  forall ops x a, GRelR x v a -> Forall basic_op ops ->
  GRelR (fst (run x ops)) v (g_run c v a ops (snd (run x ops))).
Proof.
  intros HL. apply (grun_inv c v (fun y a => GRelR y v a)). intros x a o G Ho. exact (gstep_rel_r x v a o G Ho HL).
Qed.

(* ------------------------------------------------------------------ start and stop *)
Lemma start_prer x v : IdleR c k x v -> PreR c k (fst (step x (OStart c))) v.
Proof. apply start_pre_sys. Qed.

Lemma stop_idler x v a : GRelR x v a -> IdleR c k (fst (step x OStop)) (gview v a).
Proof.
  intros G. destruct a as [p0|]; cbn [GRelR gview] in *.
  - destruct G as (P & [closed cur] & Ea & HP & R0). rewrite Ea. cbn [pfx].
    rewrite (step_sync_rel_k c crit k x _ OStop Hcfg R0). destruct R0 as [Ht [Ha R]]. cbn [sync_step].
    destruct R as [wr [roll [Es [I [V [Z RS]]]]]]. rewrite Es. cbn [st_ofk f_poisoned]. unfold drop_state.
    destruct (shutdown_active_k c k (s_w x) wr closed _ _ roll I Ha) as [w1 [wr1 [E1 [I1 [V1 [P1 A1]]]]]].
    fold (st_ofk c k (length closed) roll wr). rewrite E1.
    destruct (shutdown_active_k c k w1 wr1 closed _ _ roll I1 A1) as [w2 [wr2 [E2 [I2 [V2 [P2 A2]]]]]]. rewrite E2.
    cbn [st_ofk f_inner s_w]. unfold w_drop.
    destruct (w_flush_quiet w2 wr2 (nk_quiet _ _ _ _ _ _ I2)) as [w3 [E3 [F3 S3]]]. rewrite E3. cbn [fst snd].
    rewrite P2, append_ino_nil_id in F3. unfold IdleR, idle_sys. cbn [s_tl s_w s_flw].
    split; [exact Ht|]. split; [exact (same_env_acts _ _ S3 A2)|]. split; [reflexivity|]. split; [apply S3|].
    cbn [kdir_view]. rewrite F3.
    destruct I2 as [Q W Hc Hcp KD Hwr Hcap]. split; [exact W|].
    apply kview_pfx; [exact HP|]. split; [exact KD|].
    exists (wino wr2). split; [exact Hc|]. split; [exact Hcp|].
    unfold cur_view in *. rewrite P2, app_nil_r in V2. congruence.
  - rewrite (step_sync_prer x v OStop G). destruct G as (Ht & Ha & Es & Q & D). cbn [sync_step].
    rewrite Es. cbn [new_flw f_poisoned drop_state shutdown_state f_inner fst]. unfold IdleR, idle_sys. cbn [s_tl s_w s_flw].
    split; [exact Ht|]. split; [exact Ha|]. split; [reflexivity|]. split; [exact Q | exact D].
Qed.

(* ------------------------------------------------------------------ one whole run *)
Lemma one_run_r x v ops :
  (N.of_nat (length (closed_of v)) <= u32_max)%N -> Forall basic_op ops -> IdleR c k x v ->
  exists v', IdleR c k (fst (run x (OStart c :: ops ++ [OStop]))) v'
    /\ flat v' = flat v ++ written ops
    /\ length (closed_of v') <= length (closed_of v) + S (length ops)
    /\ extends v v'
    /\ (existsb is_wr ops = false -> v' = v /\ wfs (s_w (fst (run x (OStart c :: ops ++ [OStop])))) = wfs (s_w x)).
Proof.
  intros Hb Hops Id. cbn [run]. pose proof (start_prer x v Id) as P0.
  assert (F0 : wfs (s_w (fst (step x (OStart c)))) = wfs (s_w x)).
  { destruct Id as (_ & _ & Es & _). unfold step, apply_start. rewrite Es. unfold step_core. rewrite Es. reflexivity. }
  destruct (step x (OStart c)) as [x0 ob0]. cbn [fst] in P0, F0.
  rewrite run_app.
  pose proof (grun_rel_r v Hb ops x0 None P0 Hops) as G1. pose proof (run_length ops x0) as L.
  assert (NW : existsb is_wr ops = false ->
               g_run c v None ops (snd (run x0 ops)) = None /\ wfs (s_w (fst (run x0 ops))) = wfs (s_w x0)).
  { clear G1 L. revert x0 P0 F0. induction ops as [|o r IH]; intros x0 P0 F0 Hw; [split; reflexivity|].
    cbn [existsb] in Hw. apply Bool.orb_false_iff in Hw. destruct Hw as [Ho Hw].
    inversion Hops as [|o' r' Hbo Hbr]; subst.
    pose proof (gstep_rel_r x0 v None o P0 Hbo Hb) as S. cbn [run].
    assert (Fo : wfs (s_w (fst (step x0 o))) = wfs (s_w x0)).
    { rewrite (step_sync_prer x0 v o P0). destruct P0 as (_ & _ & Es & _).
      destruct o; try contradiction; try discriminate; cbn [sync_step]; rewrite ?Es; reflexivity. }
    assert (Eg : g_step c v None o (rot_of (snd (step x0 o))) = None) by (destruct o; try discriminate; reflexivity).
    destruct (step x0 o) as [x1 ob]. cbn [fst snd] in *. rewrite Eg in S.
    specialize (IH Hbr x1 S). destruct (run x1 r) as [x2 obs]. cbn [fst snd g_run] in *. rewrite Eg.
    destruct (IH ltac:(congruence) Hw) as [I1 I2]. split; [exact I1 | congruence]. }
  destruct (run x0 ops) as [x1 obs1]. cbn [fst snd] in *.
  pose proof (stop_idler x1 v _ G1) as S. cbn [run].
  assert (Fs : g_run c v None ops obs1 = None -> wfs (s_w (fst (step x1 OStop))) = wfs (s_w x1)).
  { intros Eg. rewrite Eg in G1. cbn [GRelR] in G1. rewrite (step_sync_prer x1 v OStop G1).
    destruct G1 as (_ & _ & Es & _). cbn [sync_step]. rewrite Es. reflexivity. }
  destruct (step x1 OStop) as [x2 ob2]. cbn [fst] in *.
  exists (gview v (g_run c v None ops obs1)). split; [exact S|]. split.
  { rewrite gview_flat, (g_run_flat c v ops None obs1 Hops L). reflexivity. }
  split. { pose proof (gview_pot v (g_run c v None ops obs1)); pose proof (g_run_pot c v ops None obs1); cbn [gpot] in *; lia. }
  split. { apply g_run_extends. apply extends_refl. }
  intros Hw. destruct (NW Hw) as [Eg Ef]. rewrite Eg. cbn [gview]. split; [reflexivity|]. rewrite (Fs Eg). congruence.
Qed.

End OneRun.
