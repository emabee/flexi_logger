(* "No operation panics, whatever the history": under the hypotheses of the stream theorems every observation of a whole
   run  OStart c :: ops ++ [OStop]  is a normal result - ObsRes 0 _ for an operation, a snapshot for OSnap - never
   code 1 (error result), 2 (panic) or 3 (no writer).  Numbers (with and without cleanup), NumbersDirect, Timestamps. *)
Require Import FL.Base.Bytes FL.Fs.Fs FL.Names.FileSpec FL.Flw.Model FL.Flw.ModelFacts FL.Flw.NumInv FL.Flw.Run
  FL.Flw.RunFacts FL.Flw.NumRun FL.Oracles.O_Flw FL.Flw.NumTheorems FL.Flw.NumListing FL.Flw.NumRestart
  FL.Flw.NumKillRestart FL.Flw.NumDInv FL.Flw.NumDRun FL.Flw.NumDTheorems FL.Flw.TsCal FL.Flw.TsTime FL.Flw.TsNames
  FL.Flw.TsInv FL.Flw.TsRun FL.Flw.TsTheorems FL.Flw.CleanupFacts FL.Flw.NumCleanupNames FL.Flw.NumCleanupStep
  FL.Flw.NumCleanupRun FL.Flw.NumCleanup.
Open Scope nat_scope.

(* the observation has the shape that belongs to the operation, with code 0 *)
Definition obs_normal (o : op) (ob : obs) : Prop :=
  match o with
  | OSnap => exists files link errs, ob = ObsSnap files link errs
  | OQuery _ => exists l, ob = ObsList 0%N l
  | _ => exists rot, ob = ObsRes 0%N rot
  end.

Lemma obs_normal_ok o ob : obs_normal o ob -> obs_ok ob.
Proof. destruct o; cbn [obs_normal]; intros H; try (destruct H as [r ->]; reflexivity). destruct H as [f [l [e ->]]]. exact I. Qed.

(* for the operations of these histories the shape follows from obs_ok: it is decided by the operation alone *)
Lemma basic_shape x o : basic_op o -> obs_ok (snd (step x o)) -> obs_normal o (snd (step x o)).
Proof.
  intros Hb. unfold step, step_core.
  set (x1 := apply_start x o). clearbody x1.
  assert (S : forall y, obs_ok (snd (sync_step y o)) -> obs_normal o (snd (sync_step y o))).
  { intros y. destruct o; try contradiction; cbn [sync_step obs_normal].
    - destruct (s_flw y) as [s|]; [|cbn; discriminate]. destruct (f_poisoned s); [cbn; discriminate|].
      destruct (write_buffer s (s_w y) (s_tl y ++ b)) as [[[r w1] s1] rot]. cbn [snd obs_ok]. intros ->. eauto.
    - destruct (s_flw y) as [s|]; [|cbn; discriminate]. destruct (f_poisoned s); [cbn; discriminate|].
      destruct (write_buffer s (s_w y) b) as [[[r w1] s1] rot]. cbn [snd obs_ok]. intros ->. eauto.
    - destruct (s_flw y) as [s|]; [|cbn; discriminate]. destruct (f_poisoned s); [cbn; eauto|].
      destruct (flush_state s (s_w y)) as [[ok w1] s1]. cbn [snd obs_ok]. intros ->. eauto.
    - destruct (s_flw y) as [s|]; [|cbn; discriminate]. destruct (f_poisoned s); [cbn; discriminate|].
      destruct (mount_next (f_cfg s) (s_w y) (f_inner s) true) as [[r w1] st1]. cbn [snd obs_ok]. intros ->. eauto.
    - cbn. eauto.
    - intros _. unfold snapshot. cbn [snd]. do 3 eexists. reflexivity. }
  destruct (s_flw x1) as [s|]; [|apply S]. destruct (is_async s); [|apply S].
  destruct o; try contradiction; cbn [async_step]; try apply S.
  - unfold async_send. destruct (s_dead x1); [cbn; eauto|]. destruct (f_poisoned s); cbn; eauto.
  - unfold async_send. destruct (s_dead x1); [cbn; discriminate|]. destruct (f_poisoned s); cbn; eauto.
  - unfold async_send. destruct (s_dead x1); [cbn; eauto|]. destruct (f_poisoned s); cbn; eauto.
Qed.

Lemma basic_obs_ok w o rot : basic_op o -> obs_ok (basic_obs w o rot).
Proof. destruct o; try contradiction; intros _; (exact eq_refl || exact I). Qed.

(* ------------------------------------------------------------------ Numbers, no cleanup *)
Lemma run_ok c crit : numcfg c crit -> forall ops x a, Rel c crit x a -> Forall basic_op ops -> Forall obs_ok (snd (run x ops)).
Proof.
  intros Hcfg ops x a R Hb.
  apply (run_inv (fun y => exists b, Rel c crit y b) basic_op obs_ok); [|eauto|exact Hb].
  intros y o [b Rb] Ho. split; [|exact (step_rel_ok c crit y b o Hcfg Rb Ho)].
  pose proof (step_rel c crit y b o Hcfg Rb Ho) as S. destruct (step y o) as [y1 ob]. eexists. apply S.
Qed.

Lemma stop_ok c crit x a : numcfg c crit -> Rel c crit x a -> snd (step x OStop) = ObsRes 0%N false.
Proof. exact (lstop_obs _ _ _ _ num_layout c crit x a). Qed.

Theorem numbers_no_panic c crit t0 off ops :
  numcfg c crit -> Forall basic_op ops ->
  Forall obs_ok (snd (run (sys0 t0 off) (OStart c :: ops ++ [OStop]))).
Proof.
  intros Hcfg Hb. cbn [run]. destruct (step (sys0 t0 off) (OStart c)) as [x0 ob0] eqn:E0.
  pose proof (start_rel c crit t0 off) as R0. rewrite E0 in R0. cbn [fst] in R0.
  assert (K0 : obs_ok ob0) by (cbn in E0; injection E0 as _ <-; reflexivity).
  rewrite run_app. pose proof (run_rel c crit Hcfg ops x0 None R0 Hb) as R1. pose proof (run_ok c crit Hcfg ops x0 None R0 Hb) as K1.
  destruct (run x0 ops) as [x1 obs1]. cbn [fst snd] in *.
  pose proof (stop_ok c crit x1 _ Hcfg R1) as K2. cbn [run]. destruct (step x1 OStop) as [x2 ob2]. cbn [snd] in *.
  constructor; [exact K0|]. apply Forall_app. split; [exact K1|]. subst ob2. repeat constructor.
Qed.
Print Assumptions numbers_no_panic.

(* ------------------------------------------------------------------ a generic corollary: the shapes, position by position *)
Lemma run_shapes : forall ops x, Forall basic_op ops -> Forall obs_ok (snd (run x ops)) -> Forall2 obs_normal ops (snd (run x ops)).
Proof.
  induction ops as [|o r IH]; intros x Hb K; [constructor|].
  inversion Hb as [|o' r' Ho Hr]; subst. cbn [run] in *. pose proof (basic_shape x o Ho) as Sh.
  destruct (step x o) as [x1 ob]. specialize (IH x1 Hr). destruct (run x1 r) as [x2 obs]. cbn [snd] in *.
  inversion K as [|ob' obs' K1 K2]; subst. constructor; [exact (Sh K1) | exact (IH K2)].
Qed.

Lemma stop_res x : exists code, snd (step x OStop) = ObsRes code false.
Proof.
  unfold step, step_core. set (x1 := apply_start x OStop). clearbody x1.
  assert (S : forall y, exists code, snd (sync_step y OStop) = ObsRes code false).
  { intros y. cbn [sync_step]. destruct (s_flw y); cbn; eauto. }
  destruct (s_flw x1) as [s|]; [|apply S]. destruct (is_async s); apply S.
Qed.

Lemma whole_run_shapes c t0 off ops : Forall basic_op ops ->
  Forall obs_ok (snd (run (sys0 t0 off) (OStart c :: ops ++ [OStop]))) ->
  Forall2 obs_normal (OStart c :: ops ++ [OStop]) (snd (run (sys0 t0 off) (OStart c :: ops ++ [OStop]))).
Proof.
  intros Hb K. cbn [run] in *. destruct (step (sys0 t0 off) (OStart c)) as [x0 ob0] eqn:E0.
  assert (Eob : ob0 = ObsRes 0%N false) by (cbn in E0; injection E0 as _ <-; reflexivity).
  rewrite run_app in *. pose proof (run_shapes ops x0 Hb) as Sh. destruct (run x0 ops) as [x1 obs1]. cbn [run] in *.
  pose proof (stop_res x1) as [code Est].
  destruct (step x1 OStop) as [x2 ob2]. cbn [snd] in *. subst ob2.
  inversion K as [|a b K0 K1]; subst. apply Forall_app in K1. destruct K1 as [K1 K2]. inversion K2 as [|a b K3 _]; subst.
  constructor; [cbn; eauto|]. apply Forall2_app; [exact (Sh K1)|]. constructor; [cbn in K3; subst code; cbn; eauto | constructor].
Qed.

Corollary numbers_no_panic_shapes c crit t0 off ops :
  numcfg c crit -> Forall basic_op ops ->
  Forall2 obs_normal (OStart c :: ops ++ [OStop]) (snd (run (sys0 t0 off) (OStart c :: ops ++ [OStop]))).
Proof. intros Hcfg Hb. apply whole_run_shapes; [exact Hb | exact (numbers_no_panic c crit t0 off ops Hcfg Hb)]. Qed.
Print Assumptions numbers_no_panic_shapes.

(* ------------------------------------------------------------------ NumbersDirect *)
Lemma step_rel_d_ok c crit x a o : numdcfg c crit -> RelD c crit x a -> basic_op o -> obs_ok (snd (step x o)).
Proof.
  intros Hcfg R Hb. destruct (lstep_obs _ _ _ _ numd_layout c crit x a o Hcfg R Hb) as [rot ->]. exact (basic_obs_ok _ o rot Hb).
Qed.

Lemma run_ok_d c crit : numdcfg c crit -> forall ops x a, RelD c crit x a -> Forall basic_op ops -> Forall obs_ok (snd (run x ops)).
Proof.
  intros Hcfg ops x a R Hb.
  apply (run_inv (fun y => exists b, RelD c crit y b) basic_op obs_ok); [|eauto|exact Hb].
  intros y o [b Rb] Ho. split; [|exact (step_rel_d_ok c crit y b o Hcfg Rb Ho)].
  pose proof (step_rel_d c crit y b o Hcfg Rb Ho) as S. destruct (step y o) as [y1 ob]. eexists. apply S.
Qed.

Lemma stop_ok_d c crit x a : numdcfg c crit -> RelD c crit x a -> snd (step x OStop) = ObsRes 0%N false.
Proof. exact (lstop_obs _ _ _ _ numd_layout c crit x a). Qed.

Theorem numbersdirect_no_panic c crit t0 off ops :
  numdcfg c crit -> Forall basic_op ops ->
  Forall obs_ok (snd (run (sys0 t0 off) (OStart c :: ops ++ [OStop]))).
Proof.
  intros Hcfg Hb. cbn [run]. destruct (step (sys0 t0 off) (OStart c)) as [x0 ob0] eqn:E0.
  pose proof (start_rel_d c crit t0 off) as R0. rewrite E0 in R0. cbn [fst] in R0.
  assert (K0 : obs_ok ob0) by (cbn in E0; injection E0 as _ <-; reflexivity).
  rewrite run_app. pose proof (run_rel_d c crit Hcfg ops x0 None R0 Hb) as R1. pose proof (run_ok_d c crit Hcfg ops x0 None R0 Hb) as K1.
  destruct (run x0 ops) as [x1 obs1]. cbn [fst snd] in *.
  pose proof (stop_ok_d c crit x1 _ Hcfg R1) as K2. cbn [run]. destruct (step x1 OStop) as [x2 ob2]. cbn [snd] in *.
  constructor; [exact K0|]. apply Forall_app. split; [exact K1|]. subst ob2. repeat constructor.
Qed.
Print Assumptions numbersdirect_no_panic.

Corollary numbersdirect_no_panic_shapes c crit t0 off ops :
  numdcfg c crit -> Forall basic_op ops ->
  Forall2 obs_normal (OStart c :: ops ++ [OStop]) (snd (run (sys0 t0 off) (OStart c :: ops ++ [OStop]))).
Proof. intros Hcfg Hb. apply whole_run_shapes; [exact Hb | exact (numbersdirect_no_panic c crit t0 off ops Hcfg Hb)]. Qed.

(* ------------------------------------------------------------------ Timestamps *)
Lemma step_rel_ts_ok c crit e lo hi n x a o :
  tscfg c crit -> tag_ok c -> years_ok e lo hi -> RelT c e lo n x a -> basic_op o -> tick_ok o ->
  (wnow (s_w x) <= hi)%Z -> (N.of_nat n <= usize_max)%N -> obs_ok (snd (step x o)).
Proof.
  intros Hcfg T Y R Hb Htk Hhi Hmax. rewrite (step_sync_rel_ts c crit e lo n x a o Hcfg R). destruct o; try contradiction; cbn [sync_step].
  - destruct (write_rel_ts c crit e lo hi n x a b Hcfg T Y R Hhi Hmax) as [s [w' [s' [rot [Es [Hp [E _]]]]]]].
    rewrite Es, Hp. rewrite (proj1 R). cbn [app]. rewrite E. reflexivity.
  - destruct (write_rel_ts c crit e lo hi n x a b Hcfg T Y R Hhi Hmax) as [s [w' [s' [rot [Es [Hp [E _]]]]]]].
    rewrite Es, Hp, E. reflexivity.
  - destruct R as [Ht [Ha R]]. destruct a as [[closed cur]|].
    + destruct R as [keys [wr [roll [ts [Es [I _]]]]]]. rewrite Es. cbn [st_ts f_poisoned].
      destruct (flush_active_ts c e lo (s_w x) wr keys closed ts roll I) as [w' [wr' [E _]]].
      fold (st_ts c ts roll wr). rewrite E. reflexivity.
    + destruct R as [Es R]. rewrite Es. reflexivity.
  - destruct R as [Ht [Ha R]]. destruct a as [[closed cur]|].
    + destruct R as [keys [wr [roll [ts [Es [I [V Hn]]]]]]]. rewrite Es. cbn [st_ts f_poisoned f_cfg f_inner].
      destruct (mount_next_rotates_ts c crit e lo hi (s_w x) wr keys closed ts roll true Hcfg T Y I Hhi ltac:(lia) eq_refl)
        as [w' [wr' [roll' [E _]]]].
      rewrite E. reflexivity.
    + destruct R as [Es R]. rewrite Es. reflexivity.
  - reflexivity.
  - cbn [snd snapshot obs_ok]. exact I.
Qed.

Lemma run_ok_ts c crit e lo hi : tscfg c crit -> tag_ok c -> years_ok e lo hi ->
  forall ops x a n, RelT c e lo n x a -> Forall basic_op ops -> Forall tick_ok ops ->
  (wnow (s_w x) + elapsed ops <= hi)%Z -> (N.of_nat (n + length ops) <= usize_max)%N ->
  Forall obs_ok (snd (run x ops)).
Proof.
  intros Hcfg T Y. induction ops as [|o r IH]; intros x a n R Hb Htk Hhi Hmax; [constructor|].
  cbn [run]. inversion Hb as [|o' r' Ho Hr]; subst. inversion Htk as [|o' r' Hto Htr]; subst.
  cbn [elapsed length] in *. pose proof (elapsed_nonneg r Htr) as Er.
  assert (Hdt : (0 <= dt_of o)%Z) by (destruct o; cbn [dt_of tick_ok] in *; lia).
  pose proof (step_rel_ts c crit e lo hi n x a o Hcfg T Y R Ho Hto ltac:(lia) ltac:(lia)) as S.
  pose proof (step_rel_ts_ok c crit e lo hi n x a o Hcfg T Y R Ho Hto ltac:(lia) ltac:(lia)) as K.
  destruct (step x o) as [x1 ob].
  destruct S as [R1 W1]. specialize (IH x1 _ (S n) R1 Hr Htr ltac:(lia) ltac:(lia)). destruct (run x1 r) as [x2 obs].
  cbn [snd] in *. constructor; assumption.
Qed.

Lemma stop_ok_ts c crit e lo n x a : tscfg c crit -> RelT c e lo n x a -> snd (step x OStop) = ObsRes 0%N false.
Proof.
  intros Hcfg R. rewrite (step_sync_rel_ts c crit e lo n x a OStop Hcfg R). cbn [sync_step]. destruct R as [_ [_ R]].
  destruct a as [[cl cu]|]; [destruct R as [keys [wr [roll [ts [Es _]]]]] | destruct R as [Es _]]; rewrite Es; reflexivity.
Qed.

Theorem timestamps_no_panic c crit t0 off ops :
  tscfg c crit -> tag_ok c -> Forall basic_op ops -> Forall tick_ok ops ->
  (0 <= t0 + ts_e c off)%Z -> (t0 + elapsed ops + ts_e c off < sec_max)%Z -> (N.of_nat (length ops) <= usize_max)%N ->
  Forall obs_ok (snd (run (sys0 t0 off) (OStart c :: ops ++ [OStop]))).
Proof.
  intros Hcfg T Hb Htk Hlo Hhi Hmax. cbn [run]. destruct (step (sys0 t0 off) (OStart c)) as [x0 ob0] eqn:E0.
  pose proof (start_rel_ts c t0 off) as R0. rewrite E0 in R0. cbn [fst] in R0.
  assert (K0 : obs_ok ob0) by (cbn in E0; injection E0 as _ <-; reflexivity).
  assert (W0 : wnow (s_w x0) = t0) by (cbn in E0; injection E0 as <- _; reflexivity).
  assert (Y : years_ok (ts_e c off) t0 (t0 + elapsed ops)) by (split; assumption).
  rewrite run_app.
  pose proof (run_rel_ts c crit _ _ _ Hcfg T Y ops x0 None 0 R0 Hb Htk ltac:(lia) ltac:(cbn [Nat.add]; exact Hmax)) as [R1 W1].
  pose proof (run_ok_ts c crit _ _ _ Hcfg T Y ops x0 None 0 R0 Hb Htk ltac:(lia) ltac:(cbn [Nat.add]; exact Hmax)) as K1.
  destruct (run x0 ops) as [x1 obs1]. cbn [fst snd] in *.
  pose proof (stop_ok_ts c crit _ _ _ x1 _ Hcfg R1) as K2. cbn [run]. destruct (step x1 OStop) as [x2 ob2]. cbn [snd] in *.
  constructor; [exact K0|]. apply Forall_app. split; [exact K1|]. subst ob2. repeat constructor.
Qed.
Print Assumptions timestamps_no_panic.

Corollary timestamps_no_panic_shapes c crit t0 off ops :
  tscfg c crit -> tag_ok c -> Forall basic_op ops -> Forall tick_ok ops ->
  (0 <= t0 + ts_e c off)%Z -> (t0 + elapsed ops + ts_e c off < sec_max)%Z -> (N.of_nat (length ops) <= usize_max)%N ->
  Forall2 obs_normal (OStart c :: ops ++ [OStop]) (snd (run (sys0 t0 off) (OStart c :: ops ++ [OStop]))).
Proof.
  intros Hcfg T Hb Htk Hlo Hhi Hmax. apply whole_run_shapes; [exact Hb | exact (timestamps_no_panic c crit t0 off ops Hcfg T Hb Htk Hlo Hhi Hmax)].
Qed.

(* ------------------------------------------------------------------ Numbers with a cleanup strategy *)
Lemma step_rel_k_ok c crit k x a o :
  numkcfg c crit k -> RelK c crit k x a -> basic_op o ->
  kside c k (nclosed (a_step a o (rot_of (snd (step x o))))) -> obs_ok (snd (step x o)).
Proof.
  intros Hcfg R Hb. rewrite (step_sync_rel_k c crit k x a o Hcfg R).
  destruct o; try contradiction; cbn [sync_step].
  - destruct (write_rel_k c crit k x a b Hcfg R) as [s [Es [Hp WR]]].
    rewrite Es, Hp. rewrite (proj1 R). cbn [app].
    destruct (write_buffer s (s_w x) b) as [[[r w'] s'] rot]. cbn [rot_of snd]. intros Hside.
    destruct (WR Hside) as (-> & _). reflexivity.
  - destruct (write_rel_k c crit k x a b Hcfg R) as [s [Es [Hp WR]]].
    rewrite Es, Hp.
    destruct (write_buffer s (s_w x) b) as [[[r w'] s'] rot]. cbn [rot_of snd]. intros Hside.
    destruct (WR Hside) as (-> & _). reflexivity.
  - intros _. destruct R as [Ht [Ha R]]. destruct a as [[closed cur]|].
    + destruct R as [wr [roll [Es [I _]]]]. rewrite Es. cbn [st_ofk f_poisoned].
      destruct (flush_active_k c k (s_w x) wr closed _ _ roll I) as [w' [wr' [E _]]].
      fold (st_ofk c k (length closed) roll wr). rewrite E. reflexivity.
    + destruct R as [Es R]. rewrite Es. reflexivity.
  - destruct R as [Ht [Ha R]]. destruct a as [[closed cur]|].
    + destruct R as [wr [roll [Es [I _]]]]. rewrite Es. cbn [st_ofk f_poisoned f_cfg f_inner].
      destruct (mount_next c (s_w x) (Active (Some (mk_rsk k (NSNumR (N.of_nat (length closed))) roll)) wr (cname c)) true)
        as [[r1 w1] st1] eqn:EM. cbn [rot_of a_step snd]. intros Hside.
      assert (Hs : kside c k (S (length closed))).
      { cbn [nclosed] in Hside. rewrite app_length in Hside. cbn [length] in Hside.
        replace (length closed + 1) with (S (length closed)) in Hside by lia. exact Hside. }
      destruct (mount_next_rotates_k c crit k (s_w x) wr closed roll true Hcfg Hs I eq_refl) as [w' [wr' [roll' [E _]]]].
      rewrite EM in E. injection E as -> -> ->. reflexivity.
    + intros _. destruct R as [Es R]. rewrite Es. reflexivity.
  - intros _. reflexivity.
  - intros _. cbn [snd snapshot obs_ok]. exact I.
Qed.

Lemma run_ok_k c crit k : numkcfg c crit k -> forall ops x a, RelK c crit k x a -> Forall basic_op ops ->
  kside c k (nclosed (a_run a ops (snd (run x ops)))) -> Forall obs_ok (snd (run x ops)).
Proof.
  intros Hcfg. induction ops as [|o r IH]; intros x a R Hb Hside; [constructor|].
  cbn [run] in *. inversion Hb as [|o' r' Ho Hr]; subst.
  pose proof (step_rel_k c crit k x a o Hcfg R Ho) as S. pose proof (step_rel_k_ok c crit k x a o Hcfg R Ho) as K.
  destruct (step x o) as [x1 ob].
  specialize (IH x1 (a_step a o (rot_of ob))). destruct (run x1 r) as [x2 obs]. cbn [fst snd a_run] in *.
  assert (Hs1 : kside c k (nclosed (a_step a o (rot_of ob)))) by (eapply kside_le; [apply nclosed_run | exact Hside]).
  destruct (S Hs1) as [R1 _]. constructor; [exact (K Hs1) | apply IH; assumption].
Qed.

Lemma stop_ok_k c crit k x a : numkcfg c crit k -> RelK c crit k x a -> snd (step x OStop) = ObsRes 0%N false.
Proof.
  intros Hcfg R. rewrite (step_sync_rel_k c crit k x a OStop Hcfg R). cbn [sync_step]. destruct R as [_ [_ R]].
  destruct a as [[cl cu]|]; [destruct R as [wr [roll [Es _]]] | destruct R as [Es _]]; rewrite Es; reflexivity.
Qed.

(* the side condition is the one of numbers_cleanup_stream: with a cleanup strategy the suffix is not "gz" (and does not end
   with ".gz") *)
Theorem numbers_cleanup_no_panic c crit k t0 off ops :
  numkcfg c crit k -> Forall basic_op ops ->
  kside c k (nclosed (a_run None ops (snd (run (fst (step (sys0 t0 off) (OStart c))) ops)))) ->
  Forall obs_ok (snd (run (sys0 t0 off) (OStart c :: ops ++ [OStop]))).
Proof.
  intros Hcfg Hb Hside. cbn [run]. destruct (step (sys0 t0 off) (OStart c)) as [x0 ob0] eqn:E0.
  pose proof (start_rel_k c crit k t0 off) as R0. rewrite E0 in R0. cbn [fst] in R0, Hside.
  assert (K0 : obs_ok ob0) by (cbn in E0; injection E0 as _ <-; reflexivity).
  rewrite run_app. pose proof (run_rel_k c crit k Hcfg ops x0 None R0 Hb Hside) as R1.
  pose proof (run_ok_k c crit k Hcfg ops x0 None R0 Hb Hside) as K1.
  destruct (run x0 ops) as [x1 obs1]. cbn [fst snd] in *.
  pose proof (stop_ok_k c crit k x1 _ Hcfg R1) as K2. cbn [run]. destruct (step x1 OStop) as [x2 ob2]. cbn [snd] in *.
  constructor; [exact K0|]. apply Forall_app. split; [exact K1|]. subst ob2. repeat constructor.
Qed.
Print Assumptions numbers_cleanup_no_panic.

(* ------------------------------------------------------------------ instances *)
Example numbers_no_panic_instance :
  Forall2 obs_normal (OStart (ex_cfg KNever log_sfx) :: ex_ops ++ [OStop])
    (snd (run (sys0 0 0) (OStart (ex_cfg KNever log_sfx) :: ex_ops ++ [OStop]))).
Proof.
  apply (numbers_no_panic_shapes _ (CSize 3)); [|exact ex_ops_basic].
  destruct (ex_numkcfg KNever log_sfx) as (A & B & C & D & _). repeat split; assumption.
Qed.

Example numbers_cleanup_no_panic_instance :
  Forall obs_ok (snd (run (sys0 0 0) (OStart (ex_cfg (KLogGz 1 1) log_sfx) :: ex_ops ++ [OStop]))).
Proof.
  apply (numbers_cleanup_no_panic _ (CSize 3) (KLogGz 1 1)); [apply ex_numkcfg | exact ex_ops_basic|].
  exact ex_sfx_ok.
Qed.

Example timestamps_no_panic_instance :
  Forall2 obs_normal (OStart ext_c :: ext_ops ++ [OStop]) (snd (run (sys0 0 0) (OStart ext_c :: ext_ops ++ [OStop]))).
Proof.
  apply (timestamps_no_panic_shapes ext_c (CSize 100) 0 0 ext_ops ext_c_ok ext_c_tag_ok ext_ops_basic ext_ops_ticks).
  - change (0 <= 0)%Z. lia.
  - change (1 < sec_max)%Z. unfold sec_max. lia.
  - vm_compute. discriminate.
Qed.

Example numbersdirect_no_panic_instance :
  Forall2 obs_normal (OStart exd_c :: exd_ops ++ [OStop]) (snd (run (sys0 0 0) (OStart exd_c :: exd_ops ++ [OStop]))).
Proof. apply (numbersdirect_no_panic_shapes exd_c (CSize 3)); [exact exd_c_ok | repeat constructor]. Qed.

Print Assumptions numbersdirect_no_panic_shapes.
Print Assumptions timestamps_no_panic_shapes.
