(* C19 at the level of whole histories, for a writer without rotation in direct mode: for EVERY fault sequence
   and EVERY list of records, the file holds exactly the records whose own write (and the opening it needed)
   succeeded, in order; every lost record is reported; after the last fault nothing is lost. *)
Require Import FL.Base.Bytes FL.Base.BytesFacts FL.Fs.Fs FL.Fs.FsFacts FL.Names.FileSpec FL.Flw.Model FL.Flw.ModelFacts FL.Flw.Run FL.Flw.RunFacts.
Open Scope nat_scope.

(* the two ways of opening a name that is free create the file ... *)
Lemma open_fresh f a (app : bool) now : lookup f a = None ->
  (if app then open_append f a now else open_trunc f a 0%N now) = create_file f a 0%N now.
Proof. intros L. destruct app; [apply open_append_fresh | apply open_trunc_fresh]; exact L. Qed.
(* ... which is empty *)
Lemma create_file_fresh f a gz now : fs_wf f -> lookup f a = None ->
  let cf := create_file f a gz now in fs_wf (fst cf) /\ lookup (fst cf) a = Some (snd cf) /\ content (fst cf) (snd cf) = [].
Proof.
  intros W L. cbv zeta. split; [exact (wf_create f a gz now W L)|].
  pose proof (create_file_spec f a gz now) as S. destruct (create_file f a gz now) as [f' i]. cbn [fst snd].
  destruct S as [-> [Hino [La _]]]. split; [exact La|]. unfold content, inode. rewrite Hino, inode_app_new. reflexivity.
Qed.

(* the configurations covered: no rotation, direct mode (no buffer), synchronous, no symlink, no start-time part *)
Definition plaincfg (c : config) : Prop :=
  c_rot c = None /\ c_cap c = None /\ c_async c = false /\ c_symlink c = false /\ fts (c_spec c) = false.

(* the specification: walk through the records with the fault oracle.  While no file is open, a record first
   needs the open call (one oracle entry); a failing open loses the record.  A non-empty record then needs one
   write call (one oracle entry).  Result: the bytes that reach the file, the number of reported failures, and the
   rest of the oracle. *)
Fixpoint sim (opened : bool) (fl : list bool) (recs : list bytes) : bytes * nat * list bool :=
  match recs with
  | [] => ([], 0, fl)
  | b :: rest =>
    let '(open_ok, fl1) := if opened then (true, fl) else match fl with [] => (true, []) | f :: r => (negb f, r) end in
    if open_ok then
      let '(write_ok, fl2) := match b with [] => (true, fl1) | _ => match fl1 with [] => (true, []) | f :: r => (negb f, r) end end in
      let '(data, errs, fl3) := sim true fl2 rest in
      if write_ok then (b ++ data, errs, fl3) else (data, S errs, fl3)
    else
      let '(data, errs, fl3) := sim false fl1 rest in (data, S errs, fl3)
  end.

Definition the_name (c : config) : bytes := as_name (c_spec c) (fixed_name_part (c_spec c) []) None.

(* the file content after the history (nothing if the file was never created) *)
Definition content_of (f : fs) (n : bytes) : bytes := match file_of f n with Some fl => fdata fl | None => [] end.

(* ------------------------------------------------------------------ invariants and single steps *)
(* the log call around write_buffer, for a synchronous writer without start-time part *)
Lemma step_write_sync x s b r w1 s1 rot :
  s_flw x = Some s -> f_poisoned s = false -> fts (c_spec (f_cfg s)) = false -> c_async (f_cfg s) = false -> s_tl x = [] ->
  write_buffer s (s_w x) b = (r, w1, s1, rot) -> r <> Panic ->
  step x (OWrite b) = ({| s_flw := Some s1; s_w := match r with Err => report EWrite w1 | _ => w1 end; s_tl := []; s_dead := s_dead x |},
                       ObsRes 0 rot).
Proof.
  intros Es Hp Hts Ha Ht E Hr. rewrite (step_sync_cfg x (OWrite b) s Es Hts Ha). cbn [sync_step]. rewrite Es, Hp, Ht. cbn [app].
  rewrite E. destruct r; [reflexivity | reflexivity | contradiction].
Qed.

(* two states whose write_buffer calls agree take the same step *)
Lemma step_write_same x x1 s s1 b :
  s_flw x = Some s -> s_flw x1 = Some s1 -> f_poisoned s = false -> f_poisoned s1 = false -> f_cfg s1 = f_cfg s ->
  fts (c_spec (f_cfg s)) = false -> c_async (f_cfg s) = false -> s_tl x = [] -> s_tl x1 = [] -> s_dead x1 = s_dead x ->
  write_buffer s (s_w x) b = write_buffer s1 (s_w x1) b ->
  step x (OWrite b) = step x1 (OWrite b).
Proof.
  intros Es Es1 Hp Hp1 Hc Hts Ha Ht Ht1 Hd E.
  rewrite (step_sync_cfg x (OWrite b) s Es Hts Ha), (step_sync_cfg x1 (OWrite b) s1 Es1); [|rewrite Hc; assumption|rewrite Hc; assumption].
  cbn [sync_step]. rewrite Es, Es1, Hp, Hp1, Ht, Ht1, Hd. cbn [app]. rewrite E. reflexivity.
Qed.
Definition mkflw (c : config) (i : inner) : flw := {| f_cfg := c; f_inner := i; f_poisoned := false |}.
Definition mksys (s : flw) (w : world) : sys := {| s_flw := Some s; s_w := w; s_tl := []; s_dead := false |}.
Definition wr_step (b : bytes) (fl : list bool) : bool * list bool :=
  match b with [] => (true, fl) | _ => match fl with [] => (true, []) | f :: r => (negb f, r) end end.
Definition open_inv (c : config) (ino : nat) (x : sys) (data : bytes) (errs : nat) (fl : list bool) : Prop :=
  exists path w, x = mksys (mkflw c (Active None {| wino := ino; wpend := []; wcap := None |} path)) w
    /\ wkill w = None /\ fs_wf (wfs w) /\ lookup (wfs w) (the_name c) = Some ino
    /\ content (wfs w) ino = data /\ werrs w = repeat EWrite errs /\ wfaults w = fl.

Lemma open_step c ino x data errs fl b :
  c_async c = false /\ fts (c_spec c) = false -> open_inv c ino x data errs fl ->
  exists x', step x (OWrite b) = (x', ObsRes 0%N false)
    /\ open_inv c ino x' (if fst (wr_step b fl) then data ++ b else data)
                         (if fst (wr_step b fl) then errs else S errs) (snd (wr_step b fl)).
Proof.
  intros [Hasync Hts] (path & w & -> & K & W & L & C & E & F).
  set (s := mkflw c (Active None {| wino := ino; wpend := []; wcap := None |} path)).
  assert (St : forall r w1, write_buffer s w b = (r, w1, s, false) -> r <> Panic ->
            step (mksys s w) (OWrite b) = (mksys s (match r with Err => report EWrite w1 | _ => w1 end), ObsRes 0 false)).
  { intros r w1 WB Hr. exact (step_write_sync (mksys s w) s b r w1 s false eq_refl eq_refl Hts Hasync eq_refl WB Hr). }
  unfold write_buffer in St; cbn [s mkflw f_inner f_cfg mount_next] in St.
  unfold w_write in St; cbn [wcap wino] in St. unfold p_write in St.
  assert (Hi : ino < length (inodes (wfs w))) by (eapply wf_bound; eassumption).
  destruct b as [|b0 b].
  - (* the empty record: no call *)
    cbn [wr_step fst snd]. eexists. split; [apply St; [reflexivity | discriminate]|].
    exists path, w. rewrite app_nil_r. split; [reflexivity|]. tauto.
  - unfold tick in St. rewrite F in St. destruct fl as [|[|] r]; cbn [wr_step fst snd negb].
    + (* oracle exhausted: the write succeeds *)
      eexists. split; [apply St; [reflexivity | discriminate]|].
      exists path, (effect w (fun f => append_ino f ino (b0 :: b))).
      unfold effect, kill_step. rewrite K. cbn [set_kill set_fs wfs wkill werrs wfaults].
      split; [reflexivity|]. split; [reflexivity|]. split; [apply wf_append; assumption|].
      split; [rewrite lookup_append; assumption|].
      split; [rewrite content_append, Nat.eqb_refl, C by assumption; reflexivity|]. split; assumption.
    + (* injected failure *)
      eexists. split; [apply St; [reflexivity | discriminate]|].
      exists path, (report EWrite (set_faults w r)).
      unfold report. cbn [set_faults wkill]. rewrite K. cbn [wfs wkill werrs wfaults].
      split; [reflexivity|]. split; [reflexivity|]. split; [assumption|]. split; [assumption|]. split; [assumption|].
      cbn [set_faults werrs wfaults]. split; [rewrite E; symmetry; apply repeat_cons | reflexivity].
    + eexists. split; [apply St; [reflexivity | discriminate]|].
      exists path, (effect (set_faults w r) (fun f => append_ino f ino (b0 :: b))).
      unfold effect, kill_step. cbn [set_faults wkill]. rewrite K. cbn [set_kill set_fs set_faults wfs wkill werrs wfaults].
      split; [reflexivity|]. split; [reflexivity|]. split; [apply wf_append; assumption|].
      split; [rewrite lookup_append; assumption|].
      split; [rewrite content_append, Nat.eqb_refl, C by assumption; reflexivity|]. split; [assumption | reflexivity].
Qed.

Definition closed_inv (c : config) (x : sys) (errs : nat) (fl : list bool) : Prop :=
  exists w, x = mksys (mkflw c Initial) w
    /\ wkill w = None /\ fs_wf (wfs w) /\ lookup (wfs w) (the_name c) = None
    /\ werrs w = repeat EWrite errs /\ wfaults w = fl.

Lemma name_plain c w : fts (c_spec c) = false -> name_of c w None = the_name c.
Proof. intros H. unfold name_of, fixed_of, the_name, fixed_name_part. rewrite H. reflexivity. Qed.

Lemma closed_step_fail c x errs r b :
  plaincfg c -> closed_inv c x errs (true :: r) ->
  exists x', step x (OWrite b) = (x', ObsRes 0%N false) /\ closed_inv c x' (S errs) r.
Proof.
  intros (Hrot & Hcap & Hasync & Hsym & Hts) (w & -> & K & W & L & E & F).
  assert (WB : write_buffer (mkflw c Initial) w b = (Err, set_faults w r, mkflw c Initial, false)).
  { unfold write_buffer; cbn [mkflw f_inner f_cfg]. unfold initialize. rewrite Hrot. unfold open_log_file, do_symlink. rewrite Hsym.
    unfold p_open, tick. rewrite F. reflexivity. }
  rewrite (step_write_sync (mksys (mkflw c Initial) w) _ b _ _ _ _ eq_refl eq_refl Hts Hasync eq_refl WB) by discriminate.
  eexists. split; [reflexivity|].
  exists (report EWrite (set_faults w r)). split; [reflexivity|].
  unfold report. cbn [set_faults wkill]. rewrite K. cbn [set_faults wfs wkill werrs wfaults].
  split; [reflexivity|]. split; [assumption|]. split; [assumption|].
  split; [rewrite E; symmetry; apply repeat_cons | reflexivity].
Qed.

Lemma closed_step_open c x errs fl b :
  plaincfg c -> closed_inv c x errs fl -> hd false fl = false ->
  exists ino x1, step x (OWrite b) = step x1 (OWrite b) /\ open_inv c ino x1 [] errs (tl fl).
Proof.
  intros (Hrot & Hcap & Hasync & Hsym & Hts) (w & -> & K & W & L & E & F) Hhd.
  set (w1 := snd (tick w)).
  assert (T : tick w = (false, w1)).
  { unfold w1, tick. rewrite F. destruct fl as [|f r]; [reflexivity|]. cbn in Hhd. subst f. reflexivity. }
  assert (K1 : wkill w1 = None) by (unfold w1, tick; rewrite F; destruct fl; cbn; assumption).
  assert (F1 : wfaults w1 = tl fl) by (unfold w1, tick; rewrite F; destruct fl; cbn; [assumption | reflexivity]).
  assert (S1 : wfs w1 = wfs w) by (unfold w1, tick; rewrite F; destruct fl; reflexivity).
  assert (E1 : werrs w1 = werrs w) by (unfold w1, tick; rewrite F; destruct fl; reflexivity).
  set (op := fun f => if c_append c then open_append f (the_name c) (wnow w1) else open_trunc f (the_name c) 0%N (wnow w1)).
  assert (Eop : op (wfs w) = create_file (wfs w) (the_name c) 0%N (wnow w1)) by (unfold op; apply open_fresh; exact L).
  destruct (create_file_fresh (wfs w) (the_name c) 0%N (wnow w1) W L) as (O_wf & O_l & O_c). rewrite <- Eop in O_wf, O_l, O_c.
  (* the initialisation opens the file *)
  assert (Ei : initialize c w = (Ok (Active None {| wino := snd (op (wfs w)); wpend := []; wcap := None |} (the_name c)),
                                 effect w1 (fun f => fst (op f)))).
  { unfold initialize. rewrite Hrot. unfold open_log_file, do_symlink. rewrite Hsym, Hcap, name_plain by assumption.
    unfold p_open. rewrite T. unfold file_of. rewrite S1, L. reflexivity. }
  clear Eop. clearbody w1. destruct (op (wfs w)) as [f' i] eqn:Eop. cbn [fst snd] in Ei, O_wf, O_l, O_c.
  exists i, (mksys (mkflw c (Active None {| wino := i; wpend := []; wcap := None |} (the_name c))) (effect w1 (fun f => fst (op f)))).
  split.
  - apply step_write_same with (s := mkflw c Initial) (s1 := mkflw c (Active None {| wino := i; wpend := []; wcap := None |} (the_name c)));
      [reflexivity | reflexivity | reflexivity | reflexivity | reflexivity | exact Hts | exact Hasync | reflexivity | reflexivity | reflexivity |].
    unfold write_buffer at 1. cbn [mksys mkflw s_w f_inner f_cfg]. rewrite Ei. reflexivity.
  - exists (the_name c). eexists. split; [reflexivity|].
    unfold effect, kill_step. rewrite K1. cbn [set_kill set_fs wfs wkill werrs wfaults].
    rewrite S1, Eop. cbn [fst].
    split; [reflexivity|]. split; [assumption|]. split; [assumption|]. split; [assumption|].
    split; [congruence | assumption].
Qed.

(* ------------------------------------------------------------------ unfolding sim *)
Lemma sim_true_cons fl b rest :
  sim true fl (b :: rest)
  = let '(data, errs, fl3) := sim true (snd (wr_step b fl)) rest in
    if fst (wr_step b fl) then (b ++ data, errs, fl3) else (data, S errs, fl3).
Proof. cbn [sim]. unfold wr_step. destruct b as [|b0 b]; [reflexivity|]. destruct fl as [|f r]; reflexivity. Qed.

Lemma sim_false_fail r b rest :
  sim false (true :: r) (b :: rest) = let '(data, errs, fl3) := sim false r rest in (data, S errs, fl3).
Proof. reflexivity. Qed.

Lemma sim_false_open fl b rest : hd false fl = false -> sim false fl (b :: rest) = sim true (tl fl) (b :: rest).
Proof. destruct fl as [|[|] r]; cbn [hd]; intros H; [reflexivity | discriminate | reflexivity]. Qed.

(* ------------------------------------------------------------------ whole runs *)
Definition all_ok (obs : list obs) : Prop := Forall (fun o => o = ObsRes 0%N false) obs.

Lemma open_run c ino recs : c_async c = false /\ fts (c_spec c) = false ->
  forall x data errs fl, open_inv c ino x data errs fl ->
  exists x' obs, run x (List.map OWrite recs) = (x', obs)
    /\ open_inv c ino x' (data ++ fst (fst (sim true fl recs))) (errs + snd (fst (sim true fl recs))) (snd (sim true fl recs))
    /\ all_ok obs.
Proof.
  intros Hasync. induction recs as [|b rest IH]; intros x data errs fl I.
  - exists x, []. cbn [List.map run sim fst snd]. rewrite app_nil_r, Nat.add_0_r.
    split; [reflexivity|]. split; [assumption | constructor].
  - destruct (open_step c ino x data errs fl b Hasync I) as (x1 & S1 & I1).
    destruct (IH _ _ _ _ I1) as (x' & obs & R & I' & Fo).
    exists x', (ObsRes 0%N false :: obs). cbn [List.map run]. rewrite S1, R. split; [reflexivity|].
    split; [|constructor; [reflexivity | assumption]].
    rewrite sim_true_cons.
    destruct (sim true (snd (wr_step b fl)) rest) as [[d e] f]. cbn [fst snd] in I'.
    destruct (fst (wr_step b fl)); cbn [fst snd].
    + rewrite app_assoc. assumption.
    + rewrite Nat.add_succ_r. assumption.
Qed.

Lemma open_final c ino x data errs fl : open_inv c ino x data errs fl ->
  content_of (wfs (s_w x)) (the_name c) = data /\ werrs (s_w x) = repeat EWrite errs /\ wfaults (s_w x) = fl.
Proof.
  intros (path & w & -> & K & W & L & C & E & F). unfold mksys; cbn [s_w].
  unfold content_of, file_of. rewrite L. auto.
Qed.

Lemma closed_run c recs : plaincfg c ->
  forall x errs fl, closed_inv c x errs fl ->
  exists x' obs, run x (List.map OWrite recs) = (x', obs)
    /\ content_of (wfs (s_w x')) (the_name c) = fst (fst (sim false fl recs))
    /\ werrs (s_w x') = repeat EWrite (errs + snd (fst (sim false fl recs)))
    /\ wfaults (s_w x') = snd (sim false fl recs)
    /\ all_ok obs.
Proof.
  intros P. induction recs as [|b rest IH]; intros x errs fl I.
  - exists x, []. cbn [List.map run sim fst snd]. rewrite Nat.add_0_r.
    destruct I as (w & -> & K & W & L & E & F). unfold mksys; cbn [s_w].
    unfold content_of, file_of. rewrite L. repeat split; try assumption. constructor.
  - destruct (hd false fl) eqn:Hhd.
    + (* the open call fails *)
      destruct fl as [|f r]; [discriminate|]. cbn [hd] in Hhd. subst f.
      destruct (closed_step_fail c x errs r b P I) as (x1 & S1 & I1).
      destruct (IH _ _ _ I1) as (x' & obs & R & Hc & He & Hf & Fo).
      exists x', (ObsRes 0%N false :: obs). cbn [List.map run]. rewrite S1, R. split; [reflexivity|].
      rewrite sim_false_fail. destruct (sim false r rest) as [[d e] f]. cbn [fst snd] in *.
      rewrite Nat.add_succ_r. repeat split; try assumption. constructor; [reflexivity | assumption].
    + (* the file is opened; from here on the file stays open *)
      destruct (closed_step_open c x errs fl b P I Hhd) as (ino & x1 & S1 & I1).
      assert (Hasync : c_async c = false /\ fts (c_spec c) = false) by (destruct P as (_ & _ & A & _ & T); split; assumption).
      destruct (open_run c ino (b :: rest) Hasync _ _ _ _ I1) as (x' & obs & R & I' & Fo).
      exists x', obs. split; [cbn [List.map run] in *; rewrite S1; exact R|].
      rewrite sim_false_open by assumption.
      destruct (open_final _ _ _ _ _ _ I') as (Hc & He & Hf). cbn [app] in Hc. auto.
Qed.

Theorem faults_norotation :
  forall c t0 off fl recs, plaincfg c ->
    let w0 := set_faults (world0 t0 off) fl in
    let x := fst (run {| s_flw := None; s_w := w0; s_tl := []; s_dead := false |} (OStart c :: List.map OWrite recs)) in
    content_of (wfs (s_w x)) (the_name c) = fst (fst (sim false fl recs))
    /\ werrs (s_w x) = repeat EWrite (snd (fst (sim false fl recs)))
    /\ (forall o, In o (snd (run {| s_flw := None; s_w := w0; s_tl := []; s_dead := false |} (OStart c :: List.map OWrite recs))) ->
          o = ObsRes 0%N false).
Proof.
  intros c t0 off fl recs P. cbv zeta.
  set (w0 := set_faults (world0 t0 off) fl).
  assert (I : closed_inv c (mksys (mkflw c Initial) w0) 0 fl).
  { exists w0. split; [reflexivity|]. split; [reflexivity|]. split; [apply wf_empty|]. repeat split; reflexivity. }
  destruct (closed_run c recs P _ _ _ I) as (x' & obs & R & Hc & He & _ & Fo).
  assert (Rn : run {| s_flw := None; s_w := w0; s_tl := []; s_dead := false |} (OStart c :: List.map OWrite recs)
               = (x', ObsRes 0%N false :: obs)).
  { change (run {| s_flw := None; s_w := w0; s_tl := []; s_dead := false |} (OStart c :: List.map OWrite recs))
      with (let '(x2, obs) := run (mksys (mkflw c Initial) w0) (List.map OWrite recs) in (x2, ObsRes 0%N false :: obs)).
    rewrite R. reflexivity. }
  rewrite Rn. cbn [fst snd]. split; [assumption|]. split; [assumption|].
  intros o [<-|Ho]; [reflexivity|]. unfold all_ok in Fo. rewrite Forall_forall in Fo. apply Fo. assumption.
Qed.
Print Assumptions faults_norotation.

Lemma sim_no_faults : forall recs opened, sim opened [] recs = (concat recs, 0, []).
Proof.
  induction recs as [|b rest IH]; intros opened; [reflexivity|].
  cbn [sim concat]. destruct opened, b; rewrite IH; reflexivity.
Qed.

Theorem no_faults_nothing_lost : forall recs, sim false [] recs = (concat recs, 0, []).
Proof. intros recs. apply sim_no_faults. Qed.
Print Assumptions no_faults_nothing_lost.

(* once the oracle is exhausted (no more failures) every further record is written *)
Theorem recovery : forall opened recs, fst (fst (sim opened [] recs)) = concat recs /\ snd (fst (sim opened [] recs)) = 0.
Proof. intros opened recs. rewrite sim_no_faults. split; reflexivity. Qed.
Print Assumptions recovery.

(* only records during whose handling a failure was injected can be missing: the result is a subsequence *)
Inductive Subseq : list bytes -> list bytes -> Prop :=
| sub_nil : Subseq [] []
| sub_keep x a b : Subseq a b -> Subseq (x :: a) (x :: b)
| sub_drop x a b : Subseq a b -> Subseq a (x :: b).
Theorem lost_only_failed : forall opened fl recs,
  exists kept, Subseq kept recs /\ fst (fst (sim opened fl recs)) = concat kept
               /\ length recs = length kept + snd (fst (sim opened fl recs)).
Proof.
  intros opened fl recs. revert opened fl. induction recs as [|b rest IH]; intros opened fl.
  - exists []. cbn [sim fst snd concat length]. repeat split. constructor.
  - assert (Keep : forall o f, let '(data, errs, fl3) := sim o f rest in
               exists kept, Subseq kept (b :: rest) /\ b ++ data = concat kept /\ length (b :: rest) = length kept + errs).
    { intros o f. destruct (IH o f) as (kept & Hs & Hd & Hl). destruct (sim o f rest) as [[d e] f3]. cbn [fst snd] in *.
      exists (b :: kept). cbn [concat length]. split; [constructor; assumption|]. split; [congruence | lia]. }
    assert (Drop : forall o f, let '(data, errs, fl3) := sim o f rest in
               exists kept, Subseq kept (b :: rest) /\ data = concat kept /\ length (b :: rest) = length kept + S errs).
    { intros o f. destruct (IH o f) as (kept & Hs & Hd & Hl). destruct (sim o f rest) as [[d e] f3]. cbn [fst snd] in *.
      exists kept. cbn [length]. split; [constructor; assumption|]. split; [assumption | lia]. }
    assert (Opened : forall f, exists kept, Subseq kept (b :: rest) /\ fst (fst (sim true f (b :: rest))) = concat kept
               /\ length (b :: rest) = length kept + snd (fst (sim true f (b :: rest)))).
    { intros f. rewrite sim_true_cons. specialize (Keep true (snd (wr_step b f))). specialize (Drop true (snd (wr_step b f))).
      destruct (sim true (snd (wr_step b f)) rest) as [[d e] f3]. destruct (fst (wr_step b f)); cbn [fst snd]; assumption. }
    destruct opened; [apply Opened|].
    destruct (hd false fl) eqn:Hhd.
    + destruct fl as [|f r]; [discriminate|]. cbn [hd] in Hhd. subst f. rewrite sim_false_fail.
      specialize (Drop false r). destruct (sim false r rest) as [[d e] f3]. cbn [fst snd]. assumption.
    + rewrite sim_false_open by assumption. apply Opened.
Qed.
Print Assumptions lost_only_failed.

(* ------------------------------------------------------------------ the statement, computed on examples *)
Definition ex_cfg (app : bool) : config :=
  {| c_spec := {| fbase := [97%N]; fdisc := None; fts := false; fsfx := Some [108%N; 111%N; 103%N] |};
     c_append := app; c_cap := None; c_rot := None; c_utc := false; c_symlink := false; c_bg := false; c_async := false; c_start := None |}.
Definition ex_run (app : bool) (fl : list bool) (recs : list bytes) : bytes * list ecode * list bool :=
  let x := fst (run {| s_flw := None; s_w := set_faults (world0 0%Z 0%Z) fl; s_tl := []; s_dead := false |}
                    (OStart (ex_cfg app) :: List.map OWrite recs)) in
  (content_of (wfs (s_w x)) (the_name (ex_cfg app)), werrs (s_w x), wfaults (s_w x)).
Definition ex_sim (fl : list bool) (recs : list bytes) : bytes * list ecode * list bool :=
  let '(d, n, r) := sim false fl recs in (d, repeat EWrite n, r).
(* open fails twice, succeeds, the write of the third record fails, the fourth is written *)
Example ex1 : ex_run false [true; true; false; true] [[1%N; 2%N]; [3%N]; [4%N]; [5%N; 6%N]] = ([5%N; 6%N], [EWrite; EWrite; EWrite], [])
              /\ ex_sim [true; true; false; true] [[1%N; 2%N]; [3%N]; [4%N]; [5%N; 6%N]] = ([5%N; 6%N], [EWrite; EWrite; EWrite], []).
Proof. split; vm_compute; reflexivity. Qed.
(* an empty record opens the file (one oracle entry) but needs no write call *)
Example ex2 : ex_run true [false; true; false] [[]; [1%N]; []; [2%N]] = ([2%N], [EWrite], [])
              /\ ex_sim [false; true; false] [[]; [1%N]; []; [2%N]] = ([2%N], [EWrite], []).
Proof. split; vm_compute; reflexivity. Qed.
