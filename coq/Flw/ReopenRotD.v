(* C18 with rotation, NumbersDirect naming (r00000, r00001, ...; no rCURRENT: the current file is the newest numbered file):
   reopen_outputfile() after an external rename of the current file, reopen_outputfile() with the file in place,
   reset(builder) to another NumbersDirect family.  The analogue of ReopenRot.v (Numbers naming).

   What the model does:
   - the path of the current file is part of the Active state; reopen_outputfile() opens exactly this path again (append,
     create if missing) and keeps the whole rotation state: the index L of the current file AND the roll state.
     After "rename r<L> -> moved; reopen" there is a NEW, empty file r<L> AT THE ORIGINAL PATH, with the same number; the
     next rotation opens r<L+1>: no number is skipped, no number is used twice in the directory - but over time the number L
     has named two different files (the one moved away and the new one).
   - the size count is not reset: the new r<L> inherits the count of the file moved away.  If that file was already over
     the limit, the first record after the reopen rotates at once: the new r<L> stays EMPTY, the record goes to r<L+1>
     (exd_reopen_empty_file).  Nothing is lost, nothing is overwritten.
   - the new writer is an unbuffered File until the next rotation; the old BufWriter is dropped, its buffered tail is
     flushed into the inode it has open: the moved file.
   - reopen with the file in place: the same inode is continued; the directory at the end is the one of the history
     without the reopen.
   - reset(builder) to another NumbersDirect family in the same write mode: the old writer is dropped (buffered tail flushed
     into the old current file), the new writer starts as in a directory of its own, provided the names of the old family
     are not members of the new one (numd_member).
   - the name the current file is renamed to must not be a numbered name of the family: renamed to the NEXT number r<L+1>,
     the file is truncated by the next rotation (without append) and its records are lost without any error:
     exd_reopen_family_name_loses_records; with append the rotation continues the file (nothing lost).
   Main statements: reopen_numbersdirect, reopen_numbersdirect_partition, reopen_numbersdirect_at_once,
   reopen_numbersdirect_initial, reopen_numbersdirect_in_place, reset_numbersdirect, reset_numbersdirect_prefix. *)
Require Import FL.Base.Bytes FL.Base.BytesFacts FL.Base.PathName FL.Fs.Fs FL.Fs.FsFacts FL.Time.Civil FL.Time.TsFormat
  FL.Names.FileSpec FL.Names.NamesFacts FL.Flw.Model FL.Flw.ModelFacts FL.Flw.QuietFacts FL.Flw.NumFs FL.Flw.NumInv FL.Flw.Run FL.Flw.RunFacts
  FL.Flw.NumRun FL.Flw.NumTheorems FL.Oracles.O_Flw FL.Flw.NumListing FL.Flw.ForeignFs FL.Flw.ForeignModel FL.Flw.NumForeign
  FL.Flw.NumDInv FL.Flw.NumDRun FL.Flw.NumDTheorems FL.Flw.NumDForeign FL.Flw.ReopenRot.
From Coq Require Import ZifyN ZifyNat ZifyBool.
Open Scope nat_scope.

(* ================================================================== 1. names outside the family *)
(* The invariant with other files in the directory is NumDInvX of NumDInv.v. *)
Definition fresh_name_d (c : config) (n : bytes) : Prop := forall i, n <> rname c i.

(* ---- the directory at the end: r00000 .. hold closed ++ [cur], the other files are untouched ---- *)
Lemma numdinvx_dir_holds c w wr closed extra : NumDInvX c w wr closed extra -> wpend wr = [] ->
  dir_holds (wfs w) (numbered c 0 (closed ++ [cur_view w wr]) ++ extra).
Proof.
  intros [Q W Hc Hcp Hcl Hex Hon Hfr Hwr] P. split.
  - intros n d Hin. apply in_app_or in Hin. destruct Hin as [Hin|Hin]; [|exact (Hex n d Hin)].
    apply numbered_in in Hin. destruct Hin as [i [Hi [-> ->]]]. cbn [Nat.add].
    rewrite app_length in Hi. cbn [length] in Hi.
    destruct (Nat.eq_dec i (length closed)) as [->|Hne].
    + exists (wino wr). split; [exact Hc|]. split; [exact Hcp|].
      rewrite app_nth2, Nat.sub_diag by lia. cbn [nth]. unfold cur_view. rewrite P, app_nil_r. reflexivity.
    + assert (Hi' : i < length closed) by lia. destruct (Hcl i Hi') as [j [Lj [Pj Cj]]]. exists j.
      split; [exact Lj|]. split; [exact Pj|]. rewrite app_nth1 by assumption. exact Cj.
  - intros n j Hn. rewrite map_app. apply in_or_app. destruct (Hon n j Hn) as [[i [Hi ->]]|Hin]; [left | right; exact Hin].
    apply numbered_names. exists i. rewrite app_length. cbn [length Nat.add]. split; [lia | reflexivity].
Qed.

(* ================================================================== 2. histories on the generalised invariant *)
(* the abstract view and the run lemmas of ReopenRot.v: closed files, content of the current file, and the ghost part g
   of the size count *)
Definition RelDX (c : config) (crit : criterion) (extra : list (bytes * bytes)) : sys -> xview -> Prop :=
  RelG (fun n => NSNumD (N.of_nat n)) (fun c n => rname c n) (fun c w wr closed => NumDInvX c w wr closed extra) c crit.

(* ---- the part of the history after the switch ---- *)
Lemma tail_reldx c crit extra x cl cu g ops2 :
  numdcfg c crit -> RelDX c crit extra x (cl, cu, g) -> Forall basic_op ops2 ->
  exists closed2 cur2,
    dir_holds (wfs (s_w (fst (run x (ops2 ++ [OStop]))))) (numbered c 0 (cl ++ closed2 ++ [cur2]) ++ extra)
    /\ concat closed2 ++ cur2 = cu ++ written ops2
    /\ (exists t, closed2 ++ [cur2] = (cu ++ t) :: List.tl (closed2 ++ [cur2]))
    /\ (forall m, crit = CSize m -> cl ++ closed2 ++ [cur2] = x_files (sx_run m (cl, cu, g) ops2)).
Proof.
  intros Hcfg R Hb.
  destruct (tail_relg _ _ _ _ (fun c closed cur => numbered c 0 (closed ++ [cur]) ++ extra) (numdx_layout extra)
              (fun c w wr cl0 => numdinvx_dir_holds c w wr cl0 extra) c crit Hcfg x cl cu g ops2 R Hb) as [closed2 [cur2 [D T]]].
  exists closed2, cur2. rewrite <- app_assoc in D. split; [exact D | exact T].
Qed.

(* ================================================================== 3. reopen_outputfile() *)
(* somebody renames the current file r<L> to a fresh name, then reopen_outputfile(): the renamed file gets the buffered
   tail, a new empty file r<L> exists at the original path, the rotation state is kept: the index is still L, the size count
   still includes the bytes moved away *)
Lemma reopen_moved_step_d c crit x cl cu moved :
  numdcfg c crit -> RelD c crit x (Some (cl, cu)) -> fresh_name_d c moved ->
  exists x2, run x [OExtRename (rname c (length cl)) moved; OReopen] = (x2, [ObsRes 0 false; ObsRes 0 false])
    /\ RelDX c crit [(moved, cu)] x2 (cl, [], length cu).
Proof.
  intros Hcfg R Hm. pose proof Hcfg as [Hrot [Hts [Hlink Hasync]]].
  cbn [run]. rewrite (step_sync_rel_d c crit x _ (OExtRename (rname c (length cl)) moved) Hcfg R).
  destruct R as [Ht [Ha [wr [roll [Es [I [V [Z RS]]]]]]]].
  pose proof I as [Q W Hc Hcp Hcl Hon Hwr Hcap].
  assert (Hfree : lookup (wfs (s_w x)) moved = None).
  { destruct (lookup (wfs (s_w x)) moved) as [j|] eqn:E; [|reflexivity]. exfalso.
    destruct (Hon _ _ E) as [i [_ E1]]. exact (Hm i E1). }
  destruct (rotate_fs_spec (wfs (s_w x)) (rname c (length cl)) moved (wino wr) (wpend wr) (wnow (s_w x)) W
              (fun E => Hm _ (eq_sym E)) Hc Hfree) as [f1 [Er R]].
  cbn zeta in R. destruct R as [L1c [Hino1 [W3 [Hnew [L3c [L3t [L3o [Hlen [Inew [Iold Ioth]]]]]]]]]].
  cbn [sync_step]. rewrite Er.
  set (w1 := set_fs (s_w x) f1).
  set (x1 := {| s_flw := s_flw x; s_w := w1; s_tl := s_tl x; s_dead := s_dead x |}).
  assert (Q1 : quiet w1) by exact Q.
  rewrite (RunFacts.step_sync_cfg x1 OReopen (st_of_d c (length cl) roll wr) Es Hts Hasync).
  cbn [sync_step x1 s_flw s_w s_tl s_dead]. rewrite Es. cbn [st_of_d f_poisoned].
  unfold st_of_d. rewrite (reopen_state_quiet c false w1 _ wr (rname c (length cl)) Q1).
  assert (Eopen : open_append (wfs w1) (rname c (length cl)) (wnow w1) = create_file f1 (rname c (length cl)) 0%N (wnow (s_w x))).
  { apply open_append_fresh. exact L1c. }
  rewrite Eopen. cbn [code_of].
  set (new := snd (create_file f1 (rname c (length cl)) 0%N (wnow (s_w x)))) in *.
  set (f3 := append_ino (fst (create_file f1 (rname c (length cl)) 0%N (wnow (s_w x)))) (wino wr) (wpend wr)) in *.
  set (w3 := flushed (set_fs w1 (fst (create_file f1 (rname c (length cl)) 0%N (wnow (s_w x))))) wr).
  assert (F3' : wfs w3 = f3) by reflexivity.
  set (wr' := {| wino := new; wpend := []; wcap := None |}).
  eexists. split; [reflexivity|].
  pose proof (wf_bound _ W _ _ Hc) as Hold.
  assert (A3 : wacts w3 = 0) by exact Ha.
  split; [exact Ht|]. split; [exact A3|]. exists wr', roll. cbn [s_flw s_w with_inner st_of_d f_cfg f_poisoned].
  split; [reflexivity|]. split.
  { constructor.
    - exact Q.
    - rewrite F3'. exact W3.
    - rewrite F3'. exact L3c.
    - rewrite F3'. cbn [wr' wino]. rewrite Inew. split; reflexivity.
    - intros i Hi. rewrite F3'. destruct (Hcl i Hi) as [j [Lj [Pj Cj]]].
      exists j. rewrite L3o; [|intros E; apply rname_inj in E; lia | intros E; exact (Hm i (eq_sym E))].
      split; [exact Lj|].
      assert (Hj1 : j <> new). { pose proof (wf_bound _ W _ _ Lj). rewrite Hnew. lia. }
      assert (Hj2 : j <> wino wr). { intros ->. pose proof (wf_inj _ W _ _ _ Lj Hc) as E. apply rname_inj in E. lia. }
      unfold content. rewrite Ioth by assumption. split; [exact Pj | exact Cj].
    - intros n d [E|[]]. injection E as <- <-. rewrite F3'. exists (wino wr). split; [exact L3t|]. split.
      + rewrite Iold. exact Hcp.
      + unfold content at 1. rewrite Iold. cbn [with_data fdata]. exact V.
    - intros n j Hn. rewrite F3' in Hn.
      destruct (beq_spec n (rname c (length cl))) as [->|Hn1]; [left; exists (length cl); split; [lia | reflexivity]|].
      destruct (beq_spec n moved) as [->|Hn2]; [right; left; reflexivity|].
      rewrite L3o in Hn by assumption. left. exact (Hon _ _ Hn).
    - intros n [<-|[]]. exact Hm.
    - reflexivity. }
  split. { unfold cur_view. rewrite F3'. cbn [wr' wino wpend]. unfold content. rewrite Inew. reflexivity. }
  split. { cbn [length]. rewrite Nat.add_0_r. exact Z. }
  exact RS.
Qed.

(* reopen_outputfile() with the file in place: the same inode is continued, the buffered tail is flushed into it *)
Lemma reopen_inplace_step_d c crit x cl cu :
  numdcfg c crit -> RelD c crit x (Some (cl, cu)) ->
  exists x2, step x OReopen = (x2, ObsRes 0 false) /\ RelDX c crit [] x2 (cl, cu, 0).
Proof.
  intros Hcfg R. pose proof Hcfg as [Hrot [Hts [Hlink Hasync]]].
  rewrite (step_sync_rel_d c crit x _ OReopen Hcfg R).
  destruct R as [Ht [Ha [wr [roll [Es [I [V [Z RS]]]]]]]].
  pose proof (numdinv_x _ _ _ _ I) as IX. pose proof I as [Q W Hc Hcp Hcl Hon Hwr Hcap].
  cbn [sync_step]. rewrite Es. cbn [st_of_d f_poisoned].
  unfold st_of_d. rewrite (reopen_state_quiet c false (s_w x) _ wr (rname c (length cl)) Q).
  assert (Eopen : open_append (wfs (s_w x)) (rname c (length cl)) (wnow (s_w x)) = (wfs (s_w x), wino wr)).
  { unfold open_append. rewrite Hc. reflexivity. }
  rewrite Eopen. cbn [fst snd code_of]. rewrite set_fs_id.
  set (wr' := {| wino := wino wr; wpend := []; wcap := None |}).
  destruct (numdinvx_append c (s_w x) (flushed (s_w x) wr) wr wr' cl [] (wpend wr) IX (flushed_fs _ wr) (flushed_env _ wr Q)
              eq_refl eq_refl) as [I3 C3].
  eexists. split; [reflexivity|].
  split; [exact Ht|]. split; [exact Ha|].
  exists wr', roll. cbn [s_flw s_w].
  split; [reflexivity|]. split; [exact I3|].
  split. { unfold cur_view. rewrite C3. cbn [wr' wpend]. rewrite app_nil_r. exact V. }
  split; [exact Z | exact RS].
Qed.

(* before the first record there is no file and no writer: the rename finds nothing, reopen does nothing *)
Lemma reopen_initial_steps_d c crit x a b :
  numdcfg c crit -> RelD c crit x None ->
  exists x2, run x [OExtRename a b; OReopen] = (x2, [ObsRes 0 false; ObsRes 0 false]) /\ RelD c crit x2 None.
Proof.
  intros Hcfg R. cbn [run]. rewrite (step_sync_rel_d c crit x _ (OExtRename a b) Hcfg R).
  cbn [sync_step]. destruct R as [Ht [Ha [Es [Q [Hn Hi]]]]].
  rewrite rename_none by (apply lookup_empty; exact Hn).
  set (x1 := {| s_flw := s_flw x; s_w := set_fs (s_w x) (wfs (s_w x)); s_tl := s_tl x; s_dead := s_dead x |}).
  assert (R1 : RelD c crit x1 None).
  { split; [exact Ht|]. split; [exact Ha|]. split; [exact Es|]. split; [exact Q|]. split; assumption. }
  rewrite (step_sync_rel_d c crit x1 _ OReopen Hcfg R1). cbn [sync_step x1 s_flw]. rewrite Es.
  cbn [new_flw f_poisoned reopen_state f_inner code_of]. eexists. split; [reflexivity|].
  split; [exact Ht|]. split; [exact Ha|]. split; [reflexivity|]. split; [exact Q|]. split; assumption.
Qed.

Lemma reopen_initial_step_d c crit x :
  numdcfg c crit -> RelD c crit x None ->
  exists x2, step x OReopen = (x2, ObsRes 0 false) /\ RelD c crit x2 None.
Proof.
  intros Hcfg R. rewrite (step_sync_rel_d c crit x _ OReopen Hcfg R). cbn [sync_step].
  pose proof R as [Ht [Ha [Es [Q [Hn Hi]]]]]. rewrite Es.
  cbn [new_flw f_poisoned reopen_state f_inner code_of]. eexists. split; [reflexivity|].
  split; [exact Ht|]. split; [exact Ha|]. split; [reflexivity|]. split; [exact Q|]. split; assumption.
Qed.

(* ================================================================== 4. whole histories *)
(* a history from a state of the original invariant, then stop *)
Lemma finish_rel_d c crit x a ops : numdcfg c crit -> RelD c crit x a -> Forall basic_op ops ->
  let a' := a_run a ops (snd (run x ops)) in
  direct_view c (wfs (s_w (fst (run x (ops ++ [OStop]))))) (files_of a')
  /\ flat a' = flat a ++ written ops
  /\ (forall m, crit = CSize m -> a' = s_run m a ops).
Proof.
  intros Hcfg R Hb a'. subst a'. rewrite run_app.
  pose proof (run_rel_d c crit Hcfg ops x a R Hb) as R1. pose proof (run_length ops x) as L.
  assert (Hs : forall m, crit = CSize m -> a_run a ops (snd (run x ops)) = s_run m a ops).
  { intros m ->. exact (proj1 (run_size_d c m Hcfg ops x a R Hb)). }
  destruct (run x ops) as [x1 obs1]. cbn [fst snd] in *.
  pose proof (stop_rel_d c crit x1 _ Hcfg R1) as S. cbn [run]. destruct (step x1 OStop) as [x2 ob2]. cbn [fst].
  split; [apply files_of_direct; exact S|]. split; [apply a_run_flat; assumption | exact Hs].
Qed.

(* the view r00000 .. of a directory without other files, and the list of (name, content) *)
Lemma dir_holds_direct_view c f files : dir_holds f (numbered c 0 files ++ []) -> direct_view c f files.
Proof.
  intros [D1 D2]. split.
  - intros i Hi. apply D1. apply in_or_app. left. apply numbered_in. exists i. split; [exact Hi|]. split; reflexivity.
  - intros n j Hn. specialize (D2 n j Hn). rewrite app_nil_r in D2. apply numbered_names in D2. exact D2.
Qed.

Lemma direct_view_dir_holds c f files : direct_view c f files -> dir_holds f (numbered c 0 files).
Proof.
  intros [A B]. split.
  - intros n d Hin. apply numbered_in in Hin. destruct Hin as [i [Hi [-> ->]]]. exact (A i Hi).
  - intros n j Hn. apply numbered_names. exact (B n j Hn).
Qed.

(* the abstract view at the end of a history whose directory (after a stop) is known *)
Lemma view_of_history c crit t0 off ops1 closed1 cur1 x0 ob0 :
  numdcfg c crit -> Forall basic_op ops1 -> step (sys0 t0 off) (OStart c) = (x0, ob0) ->
  direct_view c (wfs (s_w (fst (run (sys0 t0 off) (OStart c :: ops1 ++ [OStop]))))) (closed1 ++ [cur1]) ->
  a_run None ops1 (snd (run x0 ops1)) = Some (closed1, cur1).
Proof.
  intros Hcfg Hb1 E0 H. cbn [run] in H. rewrite E0 in H.
  pose proof (start_rel_d c crit t0 off) as R0. rewrite E0 in R0. cbn [fst] in R0.
  pose proof (finish_rel_d c crit x0 None ops1 Hcfg R0 Hb1) as [V _].
  destruct (run x0 (ops1 ++ [OStop])) as [x1 obs1]. cbn [fst] in *.
  pose proof (direct_view_unique c _ _ _ V H) as E.
  destruct (a_run None ops1 (snd (run x0 ops1))) as [[cl cu]|]; cbn [files_of] in E.
  - apply app_inj_tail in E. destruct E as [-> ->]. reflexivity.
  - destruct closed1; discriminate.
Qed.

(* ------------------------------------------------------------------ theorem 1: external rename, then reopen *)
(* closed1 ++ [cur1]: the files r00000 .. r<L> that the history ops1 leaves (L = length closed1); the current file is the
   newest one, r<L>.  It is renamed to `moved`, then reopen_outputfile() is called. *)
Theorem reopen_numbersdirect c crit t0 off ops1 ops2 moved closed1 cur1 :
  numdcfg c crit -> Forall basic_op ops1 -> Forall basic_op ops2 -> fresh_name_d c moved ->
  direct_view c (wfs (s_w (fst (run (sys0 t0 off) (OStart c :: ops1 ++ [OStop]))))) (closed1 ++ [cur1]) ->
  let cur := rname c (length closed1) in
  let r := run (sys0 t0 off) (OStart c :: ops1 ++ [OExtRename cur moved; OReopen] ++ ops2 ++ [OStop]) in
  let f := wfs (s_w (fst r)) in
  (* reopen_outputfile() succeeds *)
  nth_error (snd r) (S (S (length ops1))) = Some (ObsRes 0 false)
  /\ concat closed1 ++ cur1 = written ops1
  /\ exists closed2 cur2,
       (* the directory: the closed files of ops1 under their numbers, the files of ops2 under the numbers L, L+1, ..,
          and the renamed file with everything written since the last rotation of ops1 (buffered tail included) *)
       dir_holds f (numbered c 0 (closed1 ++ closed2 ++ [cur2]) ++ [(moved, cur1)])
       (* the first file of ops2 is a new file at the original path: it has the number L again *)
       /\ In (cur, hd [] (closed2 ++ [cur2])) (numbered c 0 (closed1 ++ closed2 ++ [cur2]))
       /\ concat closed2 ++ cur2 = written ops2
       /\ concat (closed1 ++ [cur1] ++ closed2 ++ [cur2]) = written (ops1 ++ ops2).
Proof.
  intros Hcfg Hb1 Hb2 Hm Hv. cbv zeta.
  destruct (step (sys0 t0 off) (OStart c)) as [x0 ob0] eqn:E0.
  pose proof (view_of_history c crit t0 off ops1 closed1 cur1 x0 ob0 Hcfg Hb1 E0 Hv) as Ea.
  cbn [run]. rewrite E0.
  pose proof (start_rel_d c crit t0 off) as R0. rewrite E0 in R0. cbn [fst] in R0.
  rewrite !run_app.
  pose proof (run_rel_d c crit Hcfg ops1 x0 None R0 Hb1) as R1. pose proof (run_length ops1 x0) as L1.
  pose proof (a_run_flat ops1 None (snd (run x0 ops1)) Hb1 L1) as Fl1. cbn [flat app] in Fl1.
  destruct (run x0 ops1) as [x1 obs1]. cbn [fst snd] in *. rewrite Ea in *. cbn [flat] in Fl1.
  destruct (reopen_moved_step_d c crit x1 closed1 cur1 moved Hcfg R1 Hm) as [x2 [E2 R2]].
  rewrite (run_app [OExtRename (rname c (length closed1)) moved; OReopen]). rewrite E2.
  destruct (tail_reldx c crit [(moved, cur1)] x2 closed1 [] (length cur1) ops2 Hcfg R2 Hb2) as [closed2 [cur2 [D [C _]]]].
  destruct (run x2 (ops2 ++ [OStop])) as [x3 obs3]. cbn [fst snd] in *.
  split; [apply nth_error_after; exact L1|]. split; [exact Fl1|].
  exists closed2, cur2. cbn [app] in C.
  split; [exact D|]. split.
  { apply numbered_in. exists (length closed1). split; [rewrite app_length; destruct closed2; cbn [length app]; lia|].
    split; [reflexivity|]. rewrite app_nth2, Nat.sub_diag by lia. destruct closed2; reflexivity. }
  split; [exact C|].
  rewrite ReopenRot.written_app, !concat_app. cbn [concat]. rewrite !app_nil_r, <- Fl1, <- C, <- !app_assoc. reflexivity.
Qed.
Print Assumptions reopen_numbersdirect.

(* size criterion: the size count survives the reopen.  The files r<L>, r<L+1>, .. after the switch are the greedy partition
   of ops2 that starts with cur1 (the content of the renamed file) in the current file - with cur1 taken off the first file,
   because these bytes are in the renamed file *)
Theorem reopen_numbersdirect_partition c m t0 off ops1 ops2 moved closed1 cur1 :
  numdcfg c (CSize m) -> Forall basic_op ops1 -> Forall basic_op ops2 -> fresh_name_d c moved ->
  expected_files m None (items false ops1) = closed1 ++ [cur1] ->
  let r := run (sys0 t0 off) (OStart c :: ops1 ++ [OExtRename (rname c (length closed1)) moved; OReopen] ++ ops2 ++ [OStop]) in
  exists h tl,
    partition m [] cur1 (items true ops2) = (cur1 ++ h) :: tl
    /\ dir_holds (wfs (s_w (fst r))) (numbered c 0 (closed1 ++ h :: tl) ++ [(moved, cur1)]).
Proof.
  intros Hcfg Hb1 Hb2 Hm Hex. cbv zeta.
  pose proof (numbersdirect_partition c m t0 off ops1 Hcfg Hb1) as Hv. rewrite Hex in Hv.
  destruct (step (sys0 t0 off) (OStart c)) as [x0 ob0] eqn:E0.
  pose proof (view_of_history c (CSize m) t0 off ops1 closed1 cur1 x0 ob0 Hcfg Hb1 E0 Hv) as Ea.
  cbn [run]. rewrite E0.
  pose proof (start_rel_d c (CSize m) t0 off) as R0. rewrite E0 in R0. cbn [fst] in R0.
  rewrite !run_app.
  pose proof (run_rel_d c (CSize m) Hcfg ops1 x0 None R0 Hb1) as R1.
  destruct (run x0 ops1) as [x1 obs1]. cbn [fst snd] in *. rewrite Ea in *.
  destruct (reopen_moved_step_d c (CSize m) x1 closed1 cur1 moved Hcfg R1 Hm) as [x2 [E2 R2]].
  rewrite (run_app [OExtRename (rname c (length closed1)) moved; OReopen]). rewrite E2.
  destruct (tail_reldx c (CSize m) [(moved, cur1)] x2 closed1 [] (length cur1) ops2 Hcfg R2 Hb2) as [closed2 [cur2 [D [_ [_ P]]]]].
  destruct (run x2 (ops2 ++ [OStop])) as [x3 obs3]. cbn [fst snd] in *.
  destruct (sx_run_partition m ops2 closed1 [] cur1 Hb2) as [h [tl [P1 P2]]]. rewrite app_nil_r in P1.
  exists h, tl. split; [exact P1|]. rewrite (eq_trans (P m eq_refl) P2) in D. exact D.
Qed.
Print Assumptions reopen_numbersdirect_partition.

(* right after reopen_outputfile() has returned the renamed file holds every record written since the last rotation -
   the buffered tail included -, and there is a new, empty file r<L> at the original path *)
Theorem reopen_numbersdirect_at_once c crit t0 off ops1 moved closed1 cur1 :
  numdcfg c crit -> Forall basic_op ops1 -> fresh_name_d c moved ->
  direct_view c (wfs (s_w (fst (run (sys0 t0 off) (OStart c :: ops1 ++ [OStop]))))) (closed1 ++ [cur1]) ->
  let f := wfs (s_w (fst (run (sys0 t0 off) (OStart c :: ops1 ++ [OExtRename (rname c (length closed1)) moved; OReopen])))) in
  concat closed1 ++ cur1 = written ops1
  /\ dir_holds f (numbered c 0 (closed1 ++ [[]]) ++ [(moved, cur1)]).
Proof.
  intros Hcfg Hb1 Hm Hv. cbv zeta.
  destruct (step (sys0 t0 off) (OStart c)) as [x0 ob0] eqn:E0.
  pose proof (view_of_history c crit t0 off ops1 closed1 cur1 x0 ob0 Hcfg Hb1 E0 Hv) as Ea.
  cbn [run]. rewrite E0.
  pose proof (start_rel_d c crit t0 off) as R0. rewrite E0 in R0. cbn [fst] in R0.
  rewrite run_app.
  pose proof (run_rel_d c crit Hcfg ops1 x0 None R0 Hb1) as R1. pose proof (run_length ops1 x0) as L1.
  pose proof (a_run_flat ops1 None (snd (run x0 ops1)) Hb1 L1) as Fl1. cbn [flat app] in Fl1.
  destruct (run x0 ops1) as [x1 obs1]. cbn [fst snd] in *. rewrite Ea in *. cbn [flat] in Fl1.
  destruct (reopen_moved_step_d c crit x1 closed1 cur1 moved Hcfg R1 Hm) as [x2 [E2 R2]]. rewrite E2. cbn [fst].
  split; [exact Fl1|].
  destruct R2 as [_ [_ [wr [roll [_ [I [V _]]]]]]].
  assert (Hp : wpend wr = []).
  { unfold cur_view in V. destruct (content (wfs (s_w x2)) (wino wr)); [exact V | discriminate]. }
  rewrite <- V. apply numdinvx_dir_holds; assumption.
Qed.
Print Assumptions reopen_numbersdirect_at_once.

(* no record before the switch: there is no file yet (whatever is renamed, nothing is found), reopen does nothing, the
   history ops2 starts with r00000 as from a fresh start *)
Theorem reopen_numbersdirect_initial c crit t0 off ops1 ops2 a b :
  numdcfg c crit -> Forall basic_op ops1 -> Forall basic_op ops2 -> wrote ops1 = false ->
  let r := run (sys0 t0 off) (OStart c :: ops1 ++ [OExtRename a b; OReopen] ++ ops2 ++ [OStop]) in
  nth_error (snd r) (S (S (length ops1))) = Some (ObsRes 0 false)
  /\ exists files, direct_view c (wfs (s_w (fst r))) files /\ concat files = written ops2
       /\ (forall m, crit = CSize m -> files = expected_files m None (items false ops2)).
Proof.
  intros Hcfg Hb1 Hb2 Hw1. cbv zeta. cbn [run]. destruct (step (sys0 t0 off) (OStart c)) as [x0 ob0] eqn:E0.
  pose proof (start_rel_d c crit t0 off) as R0. rewrite E0 in R0. cbn [fst] in R0.
  rewrite !run_app.
  pose proof (run_rel_d c crit Hcfg ops1 x0 None R0 Hb1) as R1. pose proof (run_length ops1 x0) as L1.
  pose proof (a_run_none_wrote ops1 (snd (run x0 ops1)) L1) as Hw. rewrite Hw1 in Hw.
  destruct (run x0 ops1) as [x1 obs1]. cbn [fst snd] in *. rewrite Hw in R1.
  destruct (reopen_initial_steps_d c crit x1 a b Hcfg R1) as [x2 [E2 R2]].
  rewrite (run_app [OExtRename a b; OReopen]). rewrite E2.
  pose proof (finish_rel_d c crit x2 None ops2 Hcfg R2 Hb2) as [Rd [Fl Sz]].
  destruct (run x2 (ops2 ++ [OStop])) as [x3 obs3]. cbn [fst snd] in *.
  split; [apply nth_error_after; exact L1|].
  eexists. split; [exact Rd|]. split; [rewrite files_of_concat; exact Fl|].
  intros m Hm. rewrite (Sz m Hm). apply s_run_none. exact Hb2.
Qed.
Print Assumptions reopen_numbersdirect_initial.

(* ------------------------------------------------------------------ theorem 2: reopen with the file in place *)
(* nothing is lost, nothing is truncated: the closed files of ops1 stay, the current file of ops1 is continued (cur1 is a
   prefix of the file that follows the closed files of ops1), the family holds exactly the stream *)
Theorem reopen_numbersdirect_in_place c crit t0 off ops1 ops2 :
  numdcfg c crit -> Forall basic_op ops1 -> Forall basic_op ops2 ->
  let r := run (sys0 t0 off) (OStart c :: ops1 ++ [OReopen] ++ ops2 ++ [OStop]) in
  let f := wfs (s_w (fst r)) in
  nth_error (snd r) (S (length ops1)) = Some (ObsRes 0 false)
  /\ exists files1 files,
       direct_view c (wfs (s_w (fst (run (sys0 t0 off) (OStart c :: ops1 ++ [OStop]))))) files1
       /\ concat files1 = written ops1
       /\ direct_view c f files /\ concat files = written (ops1 ++ ops2)
       /\ (forall closed1 cur1, files1 = closed1 ++ [cur1] -> exists t rest, files = closed1 ++ (cur1 ++ t) :: rest)
       (* size criterion: exactly the files of the history without the reopen (numbersdirect_partition) *)
       /\ (forall m, crit = CSize m -> files = expected_files m None (items false (ops1 ++ ops2))).
Proof.
  intros Hcfg Hb1 Hb2. cbv zeta. cbn [run]. destruct (step (sys0 t0 off) (OStart c)) as [x0 ob0] eqn:E0.
  pose proof (start_rel_d c crit t0 off) as R0. rewrite E0 in R0. cbn [fst] in R0.
  rewrite !run_app.
  pose proof (run_rel_d c crit Hcfg ops1 x0 None R0 Hb1) as R1. pose proof (run_length ops1 x0) as L1.
  pose proof (a_run_flat ops1 None (snd (run x0 ops1)) Hb1 L1) as Fl1. cbn [flat app] in Fl1.
  destruct (run x0 ops1) as [x1 obs1] eqn:E1. cbn [fst snd] in *.
  pose proof (stop_rel_d c crit x1 _ Hcfg R1) as S1. cbn [run] in S1 |- *.
  assert (Hex : forall m, crit = CSize m -> forall a, a_run None ops1 obs1 = a -> forall fl,
            fl = files_of (s_run m a ops2) -> fl = expected_files m None (items false (ops1 ++ ops2))).
  { intros m Hm a Ea fl ->. subst crit. rewrite <- s_run_none by (apply Forall_app; split; assumption).
    rewrite s_run_app. pose proof (proj1 (run_size_d c m Hcfg ops1 x0 None R0 Hb1)) as Sz.
    rewrite E1 in Sz. cbn [snd] in Sz. rewrite <- Sz, Ea. reflexivity. }
  assert (Hnth : forall (a : obs) rest, nth_error (obs1 ++ a :: rest) (length ops1) = Some a).
  { intros a rest. rewrite nth_error_app2 by lia. rewrite L1, Nat.sub_diag. reflexivity. }
  destruct (a_run None ops1 obs1) as [[cl cu]|] eqn:Ea.
  - destruct (reopen_inplace_step_d c crit x1 cl cu Hcfg R1) as [x2 [E2 R2]].
    assert (E2' : run x1 [OReopen] = (x2, [ObsRes 0 false])) by (cbn [run]; rewrite E2; reflexivity).
    rewrite (run_app [OReopen]), E2'.
    destruct (tail_reldx c crit [] x2 cl cu 0 ops2 Hcfg R2 Hb2) as [closed2 [cur2 [D [C [[t Ht] P]]]]].
    destruct (run x2 (ops2 ++ [OStop])) as [x3 obs3]. cbn [fst snd] in *.
    split; [apply Hnth|].
    destruct (step x1 OStop) as [x1s ob1s]. cbn [fst].
    exists (cl ++ [cu]), (cl ++ closed2 ++ [cur2]).
    split; [exact S1|].
    split. { rewrite concat_app. cbn [concat]. rewrite app_nil_r. exact Fl1. }
    split; [apply dir_holds_direct_view; exact D|].
    split.
    { rewrite ReopenRot.written_app, !concat_app. cbn [concat]. rewrite app_nil_r, <- Fl1. cbn [flat]. rewrite <- app_assoc, <- C. reflexivity. }
    split.
    { intros closed1 cur1 E. apply app_inj_tail in E. destruct E as [<- <-].
      rewrite Ht. exists t, (List.tl (closed2 ++ [cur2])). reflexivity. }
    intros m Hm. apply (Hex m Hm _ eq_refl). rewrite (P m Hm). apply sx_run_files. exact Hb2.
  - destruct (reopen_initial_step_d c crit x1 Hcfg R1) as [x2 [E2 R2]].
    assert (E2' : run x1 [OReopen] = (x2, [ObsRes 0 false])) by (cbn [run]; rewrite E2; reflexivity).
    rewrite (run_app [OReopen]), E2'.
    pose proof (finish_rel_d c crit x2 None ops2 Hcfg R2 Hb2) as [Rd [Fl Sz2]].
    destruct (run x2 (ops2 ++ [OStop])) as [x3 obs3]. cbn [fst snd] in *.
    split; [apply Hnth|].
    destruct (step x1 OStop) as [x1s ob1s]. cbn [fst].
    exists [], (files_of (a_run None ops2 (snd (run x2 ops2)))).
    split; [apply (direct_view_nil c); exact S1|]. split; [exact Fl1|]. split; [exact Rd|].
    split. { rewrite files_of_concat, Fl, ReopenRot.written_app, <- Fl1. reflexivity. }
    split; [intros closed1 cur1 E; destruct closed1; discriminate|].
    intros m Hm. apply (Hex m Hm _ eq_refl). rewrite (Sz2 m Hm). reflexivity.
Qed.
Print Assumptions reopen_numbersdirect_in_place.

(* ================================================================== 5. reset(builder) to another NumbersDirect family *)
(* the names of the family of c are not members of the family of c2 (the family test of the model, numd_member) *)
Definition foreign_family_d (c c2 : config) : Prop := forall i, numd_member c2 (rname c i) = false.

(* reset: the old writer is dropped - its buffered tail reaches the old current file -, a new writer is installed *)
Lemma reset_step_d c crit c2 crit2 x a :
  numdcfg c crit -> numdcfg c2 crit2 -> c_cap c2 = c_cap c -> RelD c crit x a ->
  exists x2, step x (OReset c2) = (x2, ObsRes 0 false)
    /\ s_flw x2 = Some (new_flw c2) /\ s_tl x2 = [] /\ wacts (s_w x2) = 0 /\ quiet (s_w x2)
    /\ fs_wf (wfs (s_w x2)) /\ direct_view c (wfs (s_w x2)) (files_of a).
Proof.
  intros Hcfg Hcfg2 Hcap R. rewrite (step_sync_rel_d c crit x _ (OReset c2) Hcfg R).
  assert (Hmode : c_async c2 = c_async c).
  { destruct Hcfg as [_ [_ [_ ->]]]. destruct Hcfg2 as [_ [_ [_ ->]]]. reflexivity. }
  destruct R as [Ht [Ha R]]. destruct a as [[cl cu]|].
  - destruct R as [wr [roll [Es [I [V [Z RS]]]]]]. pose proof (nd_quiet _ _ _ _ I) as Q0.
    rewrite (reset_quiet x _ c2 Es eq_refl Q0 Hcap Hmode). cbn [st_of_d f_inner].
    destruct (numdinv_append c (s_w x) (flushed (s_w x) wr) wr (emptied wr) cl (wpend wr) I (flushed_fs _ wr) (flushed_env _ wr Q0)
                eq_refl eq_refl (wr_ok_nil _ _)) as [I1 C1].
    eexists. split; [reflexivity|]. cbn [s_flw s_tl s_w].
    split; [reflexivity|]. split; [exact Ht|]. split; [exact Ha|]. split; [exact Q0|].
    split; [exact (nd_wf _ _ _ _ I1)|].
    cbn [files_of]. replace cu with (cur_view (flushed (s_w x) wr) (emptied wr)).
    + apply numdinv_direct_view; [exact I1 | reflexivity].
    + unfold cur_view. cbn [emptied wino wpend] in C1 |- *. rewrite C1, app_nil_r. exact V.
  - destruct R as [Es [Q [Hn Hi]]].
    rewrite (reset_quiet x _ c2 Es eq_refl Q Hcap Hmode). cbn [new_flw f_inner].
    eexists. split; [reflexivity|]. cbn [s_flw s_tl s_w].
    split; [reflexivity|]. split; [exact Ht|]. split; [exact Ha|]. split; [exact Q|].
    split; [|apply (direct_view_nil c); exact Hn].
    split; intros n; intros; rewrite (lookup_empty _ n Hn) in *; discriminate.
Qed.

(* the history of the new writer in a directory that holds the old family: the embedding of its history in an empty one *)
Lemma run_stop_embed_d fn fi c2 crit2 x ops :
  numdcfg c2 crit2 -> (forall n, In n (fnames fn) -> numd_member c2 n = false) -> RelD c2 crit2 x None -> Forall basic_op ops ->
  fst (run (embedx fn fi x) (ops ++ [OStop])) = embedx fn fi (fst (run x (ops ++ [OStop]))).
Proof.
  intros Hcfg Hfor R Hb. pose proof Hcfg as [Hrot [Hts [Hlink Hasync]]].
  assert (Hg : forall y s, good_sys_d c2 y -> s_flw y = Some s -> f_cfg s = c2 /\ f_poisoned s = false).
  { intros y s G Es. destruct (G s Es) as [Ec [Hp _]]. split; assumption. }
  pose proof (fun y s b (G : good_sys_d c2 y) (Es : s_flw y = Some s) =>
                write_buffer_embed_d fn fi c2 crit2 Hrot Hts Hlink Hfor s (s_w y) b (G s Es)) as HW.
  pose proof (fun y s (G : good_sys_d c2 y) (Es : s_flw y = Some s) =>
                mount_next_embed_d fn fi c2 Hts Hlink Hfor (s_w y) (f_inner s) true (proj2 (proj2 (G s Es)))) as HM.
  assert (F : forall i, fam_g fn (good_sys_d c2) (fst (run x (firstn i ops)))).
  { intros i. eapply reld_fam; [exact Hfor|]. apply (run_rel_d c2 crit2 Hcfg (firstn i ops) x None R). apply Forall_firstn'. exact Hb. }
  rewrite !run_app.
  pose proof (run_embed_g fn fi c2 (good_sys_d c2) Hts Hasync Hg HW HM ops x F Hb) as [E1 _].
  pose proof (F (length ops)) as [G1 _]. rewrite firstn_all in G1.
  destruct (run (embedx fn fi x) ops) as [xf1 obsf1]. destruct (run x ops) as [x1 obs1]. cbn [fst snd] in *. subst xf1.
  cbn [run]. pose proof (step_embed_g fn fi c2 (good_sys_d c2) Hts Hasync Hg HW HM x1 OStop G1 Logic.I) as ES.
  destruct (step (embedx fn fi x1) OStop) as [xf2 obf2]. destruct (step x1 OStop) as [x2 ob2]. cbn [fst snd] in *.
  injection ES as -> _. reflexivity.
Qed.

(* ------------------------------------------------------------------ theorem 3 *)
Theorem reset_numbersdirect c crit c2 crit2 t0 off ops1 ops2 :
  numdcfg c crit -> numdcfg c2 crit2 -> c_cap c2 = c_cap c -> foreign_family_d c c2 ->
  Forall basic_op ops1 -> Forall basic_op ops2 ->
  let r := run (sys0 t0 off) (OStart c :: ops1 ++ [OReset c2] ++ ops2 ++ [OStop]) in
  (* the reset is accepted *)
  nth_error (snd r) (S (length ops1)) = Some (ObsRes 0 false)
  /\ exists files1 files2,
       (* files1: the family of c as the history ops1 alone leaves it (the buffered tail has reached its current file) *)
       direct_view c (wfs (s_w (fst (run (sys0 t0 off) (OStart c :: ops1 ++ [OStop]))))) files1
       /\ concat files1 = written ops1
       (* files2: the family of c2, as numbersdirect_stream / numbersdirect_partition describe it for a fresh start *)
       /\ concat files2 = written ops2
       /\ (forall m, crit = CSize m -> files1 = expected_files m None (items false ops1))
       /\ (forall m2, crit2 = CSize m2 -> files2 = expected_files m2 None (items false ops2))
       (* the directory: both families - the old one untouched, the new one starting with its r00000 -, nothing else *)
       /\ dir_holds (wfs (s_w (fst r))) (numbered c 0 files1 ++ numbered c2 0 files2).
Proof.
  intros Hcfg Hcfg2 Hcap Hf Hb1 Hb2. cbv zeta. cbn [run]. destruct (step (sys0 t0 off) (OStart c)) as [x0 ob0] eqn:E0.
  pose proof (start_rel_d c crit t0 off) as R0. rewrite E0 in R0. cbn [fst] in R0.
  rewrite !run_app.
  pose proof (run_rel_d c crit Hcfg ops1 x0 None R0 Hb1) as R1. pose proof (run_length ops1 x0) as L1.
  pose proof (a_run_flat ops1 None (snd (run x0 ops1)) Hb1 L1) as Fl1. cbn [flat app] in Fl1.
  assert (Sz : forall m, crit = CSize m -> a_run None ops1 (snd (run x0 ops1)) = s_run m None ops1).
  { intros m ->. exact (proj1 (run_size_d c m Hcfg ops1 x0 None R0 Hb1)). }
  destruct (run x0 ops1) as [x1 obs1]. cbn [fst snd] in *.
  pose proof (stop_rel_d c crit x1 _ Hcfg R1) as S1. cbn [run] in S1 |- *.
  set (a1 := a_run None ops1 obs1) in *.
  destruct (reset_step_d c crit c2 crit2 x1 a1 Hcfg Hcfg2 Hcap R1) as [x2 [E2 [Es2 [Ht2 [Ha2 [Q2 [W2 Rd2]]]]]]].
  assert (E2' : run x1 [OReset c2] = (x2, [ObsRes 0 false])) by (cbn [run]; rewrite E2; reflexivity).
  rewrite (run_app [OReset c2]), E2'.
  (* the system after the reset is the embedding of a fresh one *)
  set (fn := names (wfs (s_w x2))). set (fi := inodes (wfs (s_w x2))).
  set (x2' := {| s_flw := Some (new_flw c2); s_w := set_fs (s_w x2) empty_fs; s_tl := s_tl x2; s_dead := s_dead x2 |}).
  assert (Eemb : x2 = embedx fn fi x2').
  { unfold embedx, x2'. cbn [s_flw s_w s_tl s_dead]. unfold embedw. cbn [set_fs wfs wnow woff wfaults wkill werrs wlink wacts].
    rewrite stock_embed. unfold fn, fi. rewrite stock_eta. destruct x2 as [fl w tl dd]. cbn [s_flw s_w s_tl s_dead] in *.
    rewrite Es2. destruct w. reflexivity. }
  assert (R2 : RelD c2 crit2 x2' None).
  { split; [exact Ht2|]. split; [exact Ha2|]. split; [reflexivity|]. split; [exact Q2|]. split; reflexivity. }
  pose proof (direct_view_dir_holds c _ _ Rd2) as D0.
  assert (Hfor : forall n, In n (fnames fn) -> numd_member c2 n = false).
  { intros n Hn. change (fnames fn) with (dir_names (wfs (s_w x2))) in Hn. apply dir_names_lookup in Hn. destruct Hn as [j Hj].
    apply (proj2 D0) in Hj. apply numbered_names in Hj. destruct Hj as [i [_ ->]]. apply Hf. }
  pose proof (run_stop_embed_d fn fi c2 crit2 x2' ops2 Hcfg2 Hfor R2 Hb2) as Eend. rewrite <- Eemb in Eend.
  pose proof (finish_rel_d c2 crit2 x2' None ops2 Hcfg2 R2 Hb2) as [Rd [Fl Sz2]].
  destruct (run x2 (ops2 ++ [OStop])) as [x3 obs3]. cbn [fst snd] in *.
  assert (Hnth : forall (a : obs) rest, nth_error (obs1 ++ a :: rest) (length ops1) = Some a).
  { intros a rest. rewrite nth_error_app2 by lia. rewrite L1, Nat.sub_diag. reflexivity. }
  split; [apply Hnth|].
  destruct (step x1 OStop) as [x1s ob1s]. cbn [fst].
  exists (files_of a1), (files_of (a_run None ops2 (snd (run x2' ops2)))).
  split; [apply files_of_direct; exact S1|]. split; [rewrite files_of_concat; exact Fl1|].
  split; [rewrite files_of_concat; exact Fl|].
  split; [intros m Hm; rewrite (Sz m Hm); apply s_run_none; exact Hb1|].
  split; [intros m Hm; rewrite (Sz2 m Hm); apply s_run_none; exact Hb2|].
  rewrite Eend. cbn [embedx s_w]. unfold embedw. cbn [set_fs wfs].
  apply dir_holds_embed.
  - unfold fn, fi. rewrite stock_eta. exact W2.
  - unfold fn, fi. rewrite stock_eta. exact D0.
  - apply direct_view_dir_holds. exact Rd.
  - intros n Hn Hn'. apply numbered_names in Hn. apply numbered_names in Hn'.
    destruct Hn as [i [_ ->]]. destruct Hn' as [i' [_ E]]. cbn [Nat.add] in E.
    pose proof (Hf i) as M. rewrite E, memberd_rname in M. discriminate.
Qed.
Print Assumptions reset_numbersdirect.

(* a simple sufficient condition: the fixed name parts (basename [_discriminant]) differ, neither is a prefix of the other *)
Lemma foreign_family_d_prefix c c2 :
  is_prefix (fixed0 c) (fixed0 c2) = false -> is_prefix (fixed0 c2) (fixed0 c) = false -> foreign_family_d c c2.
Proof.
  intros H1 H2 i. apply foreign_no_prefix_d. rewrite rname_shape.
  unfold under. destruct (fixed0 c) as [|f0 fr] eqn:E; [discriminate|]. rewrite <- app_assoc. apply not_prefix_app; assumption.
Qed.

Corollary reset_numbersdirect_prefix c crit c2 crit2 t0 off ops1 ops2 :
  numdcfg c crit -> numdcfg c2 crit2 -> c_cap c2 = c_cap c ->
  is_prefix (fixed0 c) (fixed0 c2) = false -> is_prefix (fixed0 c2) (fixed0 c) = false ->
  Forall basic_op ops1 -> Forall basic_op ops2 ->
  let r := run (sys0 t0 off) (OStart c :: ops1 ++ [OReset c2] ++ ops2 ++ [OStop]) in
  exists files1 files2,
    concat files1 = written ops1 /\ concat files2 = written ops2
    /\ dir_holds (wfs (s_w (fst r))) (numbered c 0 files1 ++ numbered c2 0 files2).
Proof.
  intros Hcfg Hcfg2 Hcap H1 H2 Hb1 Hb2.
  destruct (reset_numbersdirect c crit c2 crit2 t0 off ops1 ops2 Hcfg Hcfg2 Hcap (foreign_family_d_prefix c c2 H1 H2) Hb1 Hb2)
    as [_ [files1 [files2 [_ [C1 [C2 [_ [_ D]]]]]]]].
  exists files1, files2. auto.
Qed.
Print Assumptions reset_numbersdirect_prefix.

(* ================================================================== 6. examples (non-vacuity) and findings *)
Require FL.Flw.ReopenFacts.
Import String.StringSyntax.
Open Scope string_scope.

Definition exd_cfg (base : String.string) (cap : option nat) (app : bool) : config :=
  {| c_spec := {| fbase := bs base; fdisc := None; fts := false; fsfx := Some (bs "log") |};
     c_append := app; c_cap := cap; c_rot := Some (CSize 3, NNumbersDirect, KNever); c_utc := false;
     c_symlink := false; c_bg := false; c_async := false; c_start := None |}.

Definition exd_a := exd_cfg "a" (Some 8) false.        (* a_r00000.log, a_r00001.log, ..; limit 3 bytes, BufWriter of 8 bytes *)
Definition exd_aa := exd_cfg "a" (Some 8) true.        (* the same family, append *)
Definition exd_b := exd_cfg "b" (Some 8) true.         (* another family, the same write mode *)
(* the histories of ReopenRot.v: ex_ops1 = "abcd" | "ef" flush "gh" (in the buffer);  ex_ops2 = "ij" "kl" tick "mnop" snap "q" *)

Lemma exd_fresh_old : fresh_name_d exd_a ex_moved.
Proof.
  intros i E. rewrite rname_shape in E.
  apply (f_equal (fun s => nth 1 s 0%N)) in E. vm_compute in E. discriminate.
Qed.

Example exd_hyps :
  numdcfg exd_a (CSize 3) /\ numdcfg exd_b (CSize 3) /\ Forall basic_op ex_ops1 /\ Forall basic_op ex_ops2
  /\ fresh_name_d exd_a ex_moved /\ c_cap exd_b = c_cap exd_a
  /\ is_prefix (fixed0 exd_a) (fixed0 exd_b) = false /\ is_prefix (fixed0 exd_b) (fixed0 exd_a) = false
  /\ expected_files 3 None (items false ex_ops1) = [bs "abcd"] ++ [bs "efgh"].
Proof.
  split; [repeat split|]. split; [repeat split|]. split; [repeat constructor|]. split; [repeat constructor|].
  split; [exact exd_fresh_old|]. repeat split.
Qed.

(* the history ops1 leaves a_r00000.log = "abcd", a_r00001.log = "efgh": the current file is a_r00001.log *)
Lemma exd_view1 :
  direct_view exd_a (wfs (s_w (fst (run (sys0 0 0) (OStart exd_a :: ex_ops1 ++ [OStop]))))) ([bs "abcd"] ++ [bs "efgh"]).
Proof.
  destruct exd_hyps as (Hc & _ & H1 & _ & _ & _ & _ & _ & E). rewrite <- E. exact (numbersdirect_partition exd_a 3 0 0 ex_ops1 Hc H1).
Qed.

(* ---- theorem 1 on a history ---- *)
(* at the rename "efgh" is partly on disk ("ef" was flushed), partly in the buffer ("gh"); reopen succeeds; the new file
   at the original path has the same number 1; the next rotation opens number 2 *)
Example exd_reopen_computed :
  ex_dir (OStart exd_a :: ex_ops1)
  = [(bs "a_r00000.log", bs "abcd"); (bs "a_r00001.log", bs "ef")]
  /\ ex_dir (OStart exd_a :: ex_ops1 ++ [OExtRename (rname exd_a 1) ex_moved])
  = [(bs "a.old", bs "ef"); (bs "a_r00000.log", bs "abcd")]
  /\ ex_dir (OStart exd_a :: ex_ops1 ++ [OExtRename (rname exd_a 1) ex_moved; OReopen])
  = [(bs "a.old", bs "efgh"); (bs "a_r00000.log", bs "abcd"); (bs "a_r00001.log", [])]
  /\ ex_dir (OStart exd_a :: ex_ops1 ++ [OExtRename (rname exd_a 1) ex_moved; OReopen] ++ ex_ops2 ++ [OStop])
  = [(bs "a.old", bs "efgh"); (bs "a_r00000.log", bs "abcd"); (bs "a_r00001.log", []); (bs "a_r00002.log", bs "ijkl");
     (bs "a_r00003.log", bs "mnop"); (bs "a_r00004.log", bs "q")]
  /\ nth_error (snd (run (sys0 0 0) (OStart exd_a :: ex_ops1 ++ [OExtRename (rname exd_a 1) ex_moved; OReopen] ++ ex_ops2 ++ [OStop])))
               (S (S (length ex_ops1))) = Some (ObsRes 0 false)
  /\ written ex_ops1 = bs "abcdefgh" /\ written ex_ops2 = bs "ijklmnopq".
Proof. repeat (split; [vm_compute; reflexivity|]); vm_compute; reflexivity. Qed.

(* ... what the theorem says about it *)
Example exd_reopen_thm :
  exists closed2 cur2,
    concat closed2 ++ cur2 = written ex_ops2
    /\ dir_holds (wfs (s_w (fst (run (sys0 0 0) (OStart exd_a :: ex_ops1 ++ [OExtRename (rname exd_a 1) ex_moved; OReopen] ++ ex_ops2 ++ [OStop])))))
         (numbered exd_a 0 ([bs "abcd"] ++ closed2 ++ [cur2]) ++ [(ex_moved, bs "efgh")])
    /\ In (rname exd_a 1, hd [] (closed2 ++ [cur2])) (numbered exd_a 0 ([bs "abcd"] ++ closed2 ++ [cur2])).
Proof.
  destruct exd_hyps as (Hc & _ & H1 & H2 & Hm & _).
  pose proof (reopen_numbersdirect exd_a (CSize 3) 0 0 ex_ops1 ex_ops2 ex_moved [bs "abcd"] (bs "efgh") Hc H1 H2 Hm exd_view1) as [_ [_ T]].
  destruct T as (closed2 & cur2 & D & P & C2 & _).
  exists closed2, cur2. auto.
Qed.

(* the size rule: the renamed file holds "efgh"; the greedy partition of ops2 that starts with "efgh" in the current file is
   efgh | ijkl | mnop | q ; with "efgh" taken off:  "" | ijkl | mnop | q : these are the files number 1, 2, 3, 4 *)
Example exd_reopen_partition_thm :
  dir_holds (wfs (s_w (fst (run (sys0 0 0) (OStart exd_a :: ex_ops1 ++ [OExtRename (rname exd_a 1) ex_moved; OReopen] ++ ex_ops2 ++ [OStop])))))
    (numbered exd_a 0 [bs "abcd"; []; bs "ijkl"; bs "mnop"; bs "q"] ++ [(ex_moved, bs "efgh")]).
Proof.
  destruct exd_hyps as (Hc & _ & H1 & H2 & Hm & _ & _ & _ & E).
  destruct (reopen_numbersdirect_partition exd_a 3 0 0 ex_ops1 ex_ops2 ex_moved [bs "abcd"] (bs "efgh") Hc H1 H2 Hm E) as [h [tl [P D]]].
  assert (E2 : partition 3 [] (bs "efgh") (items true ex_ops2) = (bs "efgh" ++ []) :: [bs "ijkl"; bs "mnop"; bs "q"])
    by (vm_compute; reflexivity).
  rewrite E2 in P. injection P as Ph Pt. subst h tl. exact D.
Qed.

(* right after the reopen *)
Example exd_reopen_at_once_thm :
  dir_holds (wfs (s_w (fst (run (sys0 0 0) (OStart exd_a :: ex_ops1 ++ [OExtRename (rname exd_a 1) ex_moved; OReopen])))))
    (numbered exd_a 0 [bs "abcd"; []] ++ [(ex_moved, bs "efgh")]).
Proof.
  destruct exd_hyps as (Hc & _ & H1 & _ & Hm & _).
  exact (proj2 (reopen_numbersdirect_at_once exd_a (CSize 3) 0 0 ex_ops1 ex_moved [bs "abcd"] (bs "efgh") Hc H1 Hm exd_view1)).
Qed.

(* FINDING 1: the size count is not reset by reopen_outputfile().  The file that was moved away was over the limit, so
   the first record after the reopen rotates at once: the new file a_r00001.log at the original path stays EMPTY for good.
   The files of ops2 are therefore NOT the greedy partition started afresh. *)
Example exd_reopen_empty_file :
  ReopenFacts.assoc (bs "a_r00001.log")
    (ex_dir (OStart exd_a :: ex_ops1 ++ [OExtRename (rname exd_a 1) ex_moved; OReopen] ++ ex_ops2 ++ [OStop])) = Some []
  /\ expected_files 3 None (items false ex_ops2) = [bs "ijkl"; bs "mnop"; bs "q"].
Proof. repeat (split; [vm_compute; reflexivity|]); vm_compute; reflexivity. Qed.

(* the same effect without an empty file: "ef" (2 bytes) is moved away, the count goes on at 2: "gh" alone fills the new
   a_r00001.log, whereas a fresh writer would put "ghij" into one file *)
Example exd_reopen_not_afresh :
  ex_dir (OStart exd_a :: ex_ops1' ++ [OExtRename (rname exd_a 1) ex_moved; OReopen] ++ ex_ops2' ++ [OStop])
  = [(bs "a.old", bs "ef"); (bs "a_r00000.log", bs "abcd"); (bs "a_r00001.log", bs "gh"); (bs "a_r00002.log", bs "ijk")]
  /\ ex_dir (OStart exd_a :: ex_ops2' ++ [OStop]) = [(bs "a_r00000.log", bs "ghij"); (bs "a_r00001.log", bs "k")]
  /\ partition 3 [] (bs "ef") (items true ex_ops2') = [bs "ef" ++ bs "gh"; bs "ijk"].
Proof. repeat (split; [vm_compute; reflexivity|]); vm_compute; reflexivity. Qed.

(* FINDING 2: the state after the reopen: the same index 1, the same path a_r00001.log, size count 4 (the bytes of a.old),
   an unbuffered writer.  The number 1 has now named two different files over time: the one that is a.old now, and the new
   one.  In the directory no name is used twice and no number is skipped. *)
Example exd_reopen_state :
  match s_flw (ReopenFacts.end_of (OStart exd_a :: ex_ops1 ++ [OExtRename (rname exd_a 1) ex_moved; OReopen])) with
  | Some s => match f_inner s with
              | Active (Some rs) wr path =>
                (rs_naming rs, rs_roll rs, wcap wr, wpend wr, path) = (NSNumD 1, RSize 3 4, None, [], bs "a_r00001.log")
              | _ => False end
  | None => False end.
Proof. vm_compute. reflexivity. Qed.

(* FINDING 3: the hypothesis fresh_name_d is needed, and its failure loses or misplaces records.
   (a) Somebody renames the current file a_r00001.log to the NEXT numbered name a_r00002.log, then reopen_outputfile().
       Without append the next rotation opens a_r00002.log with truncation: the records "efgh" are gone; no error is
       reported, every call returned Ok.
   (b) With append the rotation continues the file: "efgh" ++ "ijkl" - nothing is lost, and in number order the files
       still read as the stream.
   (c) With append, renamed two numbers ahead (a_r00003.log): the file is continued by the rotation after the next:
       in number order the files read abcd | "" | ijkl | efgh mnop | q - the records "efgh" are MISPLACED behind "ijkl".
   (d) Renamed to a far number (a_r00007.log): untouched by this writer, but it reads as the newest file of the family
       (and a restarted writer would continue there). *)
Example exd_reopen_family_name_loses_records :
  ex_dir (OStart exd_a :: ex_ops1 ++ [OExtRename (rname exd_a 1) (rname exd_a 2); OReopen])
  = [(bs "a_r00000.log", bs "abcd"); (bs "a_r00001.log", []); (bs "a_r00002.log", bs "efgh")]
  /\ ex_dir (OStart exd_a :: ex_ops1 ++ [OExtRename (rname exd_a 1) (rname exd_a 2); OReopen] ++ ex_ops2 ++ [OStop])
  = [(bs "a_r00000.log", bs "abcd"); (bs "a_r00001.log", []); (bs "a_r00002.log", bs "ijkl"); (bs "a_r00003.log", bs "mnop");
     (bs "a_r00004.log", bs "q")]
  /\ werrs (s_w (ReopenFacts.end_of (OStart exd_a :: ex_ops1 ++ [OExtRename (rname exd_a 1) (rname exd_a 2); OReopen] ++ ex_ops2 ++ [OStop]))) = []
  /\ List.map (fun ob => match ob with ObsRes code _ => code | _ => 0%N end)
       (snd (run (sys0 0 0) (OStart exd_a :: ex_ops1 ++ [OExtRename (rname exd_a 1) (rname exd_a 2); OReopen] ++ ex_ops2 ++ [OStop])))
     = List.repeat 0%N 14.
Proof. repeat (split; [vm_compute; reflexivity|]); vm_compute; reflexivity. Qed.

Example exd_reopen_family_name_append :
  ex_dir (OStart exd_aa :: ex_ops1 ++ [OExtRename (rname exd_aa 1) (rname exd_aa 2); OReopen] ++ ex_ops2 ++ [OStop])
  = [(bs "a_r00000.log", bs "abcd"); (bs "a_r00001.log", []); (bs "a_r00002.log", bs "efghijkl"); (bs "a_r00003.log", bs "mnop");
     (bs "a_r00004.log", bs "q")]
  /\ ex_dir (OStart exd_aa :: ex_ops1 ++ [OExtRename (rname exd_aa 1) (rname exd_aa 3); OReopen] ++ ex_ops2 ++ [OStop])
  = [(bs "a_r00000.log", bs "abcd"); (bs "a_r00001.log", []); (bs "a_r00002.log", bs "ijkl"); (bs "a_r00003.log", bs "efghmnop");
     (bs "a_r00004.log", bs "q")]
  /\ ex_dir (OStart exd_a :: ex_ops1 ++ [OExtRename (rname exd_a 1) (rname exd_a 7); OReopen] ++ ex_ops2 ++ [OStop])
  = [(bs "a_r00000.log", bs "abcd"); (bs "a_r00001.log", []); (bs "a_r00002.log", bs "ijkl"); (bs "a_r00003.log", bs "mnop");
     (bs "a_r00004.log", bs "q"); (bs "a_r00007.log", bs "efgh")].
Proof. repeat (split; [vm_compute; reflexivity|]); vm_compute; reflexivity. Qed.

(* the name of the rCURRENT file of Numbers naming is NOT a name of this family: it is a legitimate target *)
Example exd_rcurrent_is_fresh :
  fresh_name_d exd_a (cname exd_a)
  /\ ex_dir (OStart exd_a :: ex_ops1 ++ [OExtRename (rname exd_a 1) (cname exd_a); OReopen] ++ ex_ops2 ++ [OStop])
  = [(bs "a_r00000.log", bs "abcd"); (bs "a_r00001.log", []); (bs "a_r00002.log", bs "ijkl"); (bs "a_r00003.log", bs "mnop");
     (bs "a_r00004.log", bs "q"); (bs "a_rCURRENT.log", bs "efgh")].
Proof. split; [intros i E; exact (rname_not_cname _ _ (eq_sym E)) | vm_compute; reflexivity]. Qed.

(* no record before the switch *)
Example exd_reopen_initial_computed :
  wrote [OTrigger; OFlush] = false
  /\ ex_dir (OStart exd_a :: [OTrigger; OFlush] ++ [OExtRename (rname exd_a 0) ex_moved; OReopen] ++ ex_ops2 ++ [OStop])
  = [(bs "a_r00000.log", bs "ijkl"); (bs "a_r00001.log", bs "mnop"); (bs "a_r00002.log", bs "q")].
Proof. repeat (split; [vm_compute; reflexivity|]); vm_compute; reflexivity. Qed.

Example exd_reopen_initial_thm :
  direct_view exd_a
    (wfs (s_w (fst (run (sys0 0 0) (OStart exd_a :: [OTrigger; OFlush] ++ [OExtRename (rname exd_a 0) ex_moved; OReopen] ++ ex_ops2 ++ [OStop])))))
    [bs "ijkl"; bs "mnop"; bs "q"].
Proof.
  destruct exd_hyps as (Hc & _ & _ & H2 & _).
  destruct (reopen_numbersdirect_initial exd_a (CSize 3) 0 0 [OTrigger; OFlush] ex_ops2 (rname exd_a 0) ex_moved Hc
              ltac:(repeat constructor) H2 eq_refl) as [_ [files [V [_ P]]]].
  rewrite (P 3%N eq_refl) in V. exact V.
Qed.

(* ---- theorem 2 on a history: the directory is the one of the history without the reopen ---- *)
Example exd_in_place_computed :
  ex_dir (OStart exd_a :: ex_ops1 ++ [OReopen] ++ ex_ops2 ++ [OStop])
  = [(bs "a_r00000.log", bs "abcd"); (bs "a_r00001.log", bs "efgh"); (bs "a_r00002.log", bs "ijkl");
     (bs "a_r00003.log", bs "mnop"); (bs "a_r00004.log", bs "q")]
  /\ ex_dir (OStart exd_a :: ex_ops1 ++ ex_ops2 ++ [OStop]) = ex_dir (OStart exd_a :: ex_ops1 ++ [OReopen] ++ ex_ops2 ++ [OStop])
  /\ ex_dir (OStart exd_a :: ex_ops1 ++ [OReopen]) = [(bs "a_r00000.log", bs "abcd"); (bs "a_r00001.log", bs "efgh")]
  /\ nth_error (snd (run (sys0 0 0) (OStart exd_a :: ex_ops1 ++ [OReopen] ++ ex_ops2 ++ [OStop]))) (S (length ex_ops1))
     = Some (ObsRes 0 false).
Proof. repeat (split; [vm_compute; reflexivity|]); vm_compute; reflexivity. Qed.

Example exd_in_place_thm :
  direct_view exd_a (wfs (s_w (fst (run (sys0 0 0) (OStart exd_a :: ex_ops1 ++ [OReopen] ++ ex_ops2 ++ [OStop])))))
        (expected_files 3 None (items false (ex_ops1 ++ ex_ops2)))
  /\ expected_files 3 None (items false (ex_ops1 ++ ex_ops2)) = [bs "abcd"; bs "efgh"; bs "ijkl"; bs "mnop"; bs "q"].
Proof.
  split; [|vm_compute; reflexivity].
  destruct exd_hyps as (Hc & _ & H1 & H2 & _).
  pose proof (reopen_numbersdirect_in_place exd_a (CSize 3) 0 0 ex_ops1 ex_ops2 Hc H1 H2) as [_ T]. cbv zeta in T.
  destruct T as (files1 & files & _ & _ & R & _ & _ & P). rewrite (P 3%N eq_refl) in R. exact R.
Qed.

(* ---- theorem 3 on a history: reset from the family a_ to the family b_ ---- *)
Example exd_reset_computed :
  ex_dir (OStart exd_a :: ex_ops1)
  = [(bs "a_r00000.log", bs "abcd"); (bs "a_r00001.log", bs "ef")]       (* "gh" is in the buffer *)
  /\ ex_dir (OStart exd_a :: ex_ops1 ++ [OReset exd_b] ++ ex_ops2 ++ [OStop])
  = [(bs "a_r00000.log", bs "abcd"); (bs "a_r00001.log", bs "efgh");
     (bs "b_r00000.log", bs "ijkl"); (bs "b_r00001.log", bs "mnop"); (bs "b_r00002.log", bs "q")]
  /\ nth_error (snd (run (sys0 0 0) (OStart exd_a :: ex_ops1 ++ [OReset exd_b] ++ ex_ops2 ++ [OStop]))) (S (length ex_ops1))
     = Some (ObsRes 0 false).
Proof. repeat (split; [vm_compute; reflexivity|]); vm_compute; reflexivity. Qed.

Example exd_reset_thm :
  dir_holds (wfs (s_w (fst (run (sys0 0 0) (OStart exd_a :: ex_ops1 ++ [OReset exd_b] ++ ex_ops2 ++ [OStop])))))
    (numbered exd_a 0 (expected_files 3 None (items false ex_ops1)) ++ numbered exd_b 0 (expected_files 3 None (items false ex_ops2)))
  /\ numbered exd_a 0 (expected_files 3 None (items false ex_ops1)) ++ numbered exd_b 0 (expected_files 3 None (items false ex_ops2))
     = [(bs "a_r00000.log", bs "abcd"); (bs "a_r00001.log", bs "efgh");
        (bs "b_r00000.log", bs "ijkl"); (bs "b_r00001.log", bs "mnop"); (bs "b_r00002.log", bs "q")].
Proof.
  split; [|vm_compute; reflexivity].
  destruct exd_hyps as (Hc & Hc2 & H1 & H2 & _ & Hcap & P1 & P2 & _).
  pose proof (reset_numbersdirect exd_a (CSize 3) exd_b (CSize 3) 0 0 ex_ops1 ex_ops2 Hc Hc2 Hcap (foreign_family_d_prefix _ _ P1 P2) H1 H2)
    as [_ T]. cbv zeta in T.
  destruct T as (files1 & files2 & _ & _ & _ & E1 & E2 & D). rewrite (E1 3%N eq_refl), (E2 3%N eq_refl) in D. exact D.
Qed.

(* a reset to the SAME family (foreign_family_d fails): the new writer finds the old files; without append it starts the
   next number, with append it continues the newest file; the numbering continues, nothing is overwritten *)
Example exd_reset_same_family :
  ex_dir (OStart exd_a :: ex_ops1 ++ [OReset exd_a] ++ ex_ops2 ++ [OStop])
  = [(bs "a_r00000.log", bs "abcd"); (bs "a_r00001.log", bs "efgh"); (bs "a_r00002.log", bs "ijkl");
     (bs "a_r00003.log", bs "mnop"); (bs "a_r00004.log", bs "q")]
  /\ ex_dir (OStart exd_a :: ex_ops1 ++ [OReset exd_aa] ++ ex_ops2 ++ [OStop])
  = [(bs "a_r00000.log", bs "abcd"); (bs "a_r00001.log", bs "efgh"); (bs "a_r00002.log", bs "ijkl");
     (bs "a_r00003.log", bs "mnop"); (bs "a_r00004.log", bs "q")].
Proof. repeat (split; [vm_compute; reflexivity|]); vm_compute; reflexivity. Qed.
