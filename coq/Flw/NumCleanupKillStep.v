(* Numbers naming with a cleanup strategy, killed process (C11), part 2: the cleanup with a kill budget.
   Every effectful primitive of the cleanup is a kill point: remove_file; in compress_file the creation of the archive,
   the copy, finish, and the removal of the original.  One cleanup after a rotation compresses at most one file (the
   oldest plain one) and removes at most one (the oldest archive - or, with deletion only, the oldest plain file):
   all directories that a kill in it can leave are enumerated. *)
Require Import FL.Base.Bytes FL.Base.BytesFacts FL.Base.PathName FL.Fs.Fs FL.Fs.FsFacts FL.Time.TsFormat
  FL.Names.FileSpec FL.Names.SortFacts FL.Names.FamilyFacts FL.Flw.Model FL.Flw.ModelFacts FL.Flw.NumFs
  FL.Flw.NumInv FL.Flw.Run FL.Flw.NumRun FL.Flw.NumListing FL.Flw.CleanupFacts
  FL.Flw.NumCleanupNames FL.Flw.NumCleanupStep FL.Flw.NumDCleanupStep FL.Flw.NumCleanupRun FL.Flw.KillFacts FL.Flw.NumCleanupKillDir.
From Coq Require Import ZifyN ZifyNat ZifyBool.
Open Scope nat_scope.

(* ------------------------------------------------------------------ primitives with a budget *)
Lemma wfs_set_fs q f : wfs (set_fs q f) = f.
Proof. reflexivity. Qed.

Lemma same_env_set_fs2 q f : quiet q -> same_env q (set_fs q f).
Proof. intros Q. apply set_fs_env. exact Q. Qed.

Lemma tick_nofault w : wfaults w = [] -> tick w = (false, w).
Proof. intros F. unfold tick. rewrite F. reflexivity. Qed.

Lemma wfaults_effect w g : wfaults (effect w g) = wfaults w.
Proof. unfold effect. destruct (kill_step w); reflexivity. Qed.

(* an effect happens or it does not *)
Lemma effect_fs_cases (P : fs -> Prop) w g : P (wfs w) -> P (g (wfs w)) -> P (wfs (effect w g)).
Proof. intros H1 H2. unfold effect. destruct (kill_step w); [exact H2 | exact H1]. Qed.

Lemma effect_ext w g h : g (wfs w) = h (wfs w) -> effect w g = effect w h.
Proof. intros E. unfold effect. rewrite E. reflexivity. Qed.

(* compress_file n on a world in which no fault is due: create n.gz, open n, copy, finish, remove n; four effects, each of
   which happens or not as the budget of the world has it *)
Lemma compress_file_effects w n i : wfaults w = [] -> fs_wf (wfs w) -> lookup (wfs w) n = Some i -> lookup (wfs w) (gz_name n) = None ->
  let f := wfs w in
  let fa := fst (create_file f (gz_name n) 2%N (wnow w)) in
  compress_file w n
  = (true, effect (effect (effect (effect w (fun _ => fa)) (fun f' => f')) (fun f' => set_gz f' (length (inodes f)) 1%N (content f i)))
                  (fun f' => unlink f' n)).
Proof.
  intros F W Hn Hg f fa. subst f.
  assert (Hng : n <> gz_name n) by (intros E; exact (gz_name_neq n (eq_sym E))).
  assert (OT : open_trunc (wfs w) (gz_name n) 2%N (wnow w) = create_file (wfs w) (gz_name n) 2%N (wnow w)) by (apply open_trunc_fresh; exact Hg).
  set (P := fun f' : fs => lookup f' n = Some i /\ content f' i = content (wfs w) i).
  assert (P0 : P (wfs w)) by (split; [exact Hn | reflexivity]).
  assert (Pa : P fa).
  { pose proof (create_file_spec (wfs w) (gz_name n) 2%N (wnow w)) as CS. unfold create_file in CS. destruct CS as (_ & _ & _ & Lo).
    split; [rewrite <- Hn; apply Lo; exact Hng|]. unfold content, inode.
    change (inodes fa) with (inodes (wfs w) ++ [{| fdata := []; fgz := 2%N; fborn := wnow w; fdir := false |}]).
    rewrite inode_app_old by (apply (wf_bound _ W _ _ Hn)). reflexivity. }
  unfold compress_file. rewrite (tick_nofault w F). rewrite (proj2 (file_of_none _ _) Hg), OT.
  rewrite (effect_ext w _ (fun _ => fa)) by exact (f_equal fst OT).
  change (snd (create_file (wfs w) (gz_name n) 2%N (wnow w))) with (length (inodes (wfs w))).
  set (w2 := effect w (fun _ => fa)).
  assert (F2 : wfaults w2 = []) by (unfold w2; rewrite wfaults_effect; exact F).
  assert (P2 : P (wfs w2)) by (apply effect_fs_cases; assumption).
  rewrite (tick_nofault w2 F2). destruct P2 as [L2 C2]. rewrite L2, C2.
  rewrite (tick_nofault w2 F2).
  set (w5 := effect w2 (fun f' => f')).
  assert (F5 : wfaults w5 = []) by (unfold w5; rewrite wfaults_effect; exact F2).
  assert (L5 : lookup (wfs w5) n = Some i) by (apply (effect_fs_cases (fun f' => lookup f' n = Some i)); exact L2).
  rewrite (tick_nofault w5 F5).
  set (w7 := effect w5 _).
  assert (L7 : lookup (wfs w7) n = Some i) by (apply (effect_fs_cases (fun f' => lookup f' n = Some i)); exact L5).
  unfold p_remove. rewrite tick_nofault by (unfold w7; rewrite wfaults_effect; exact F5). rewrite L7. reflexivity.
Qed.

(* with a budget: the creation is kill point 1, the copy 2, finish 3, the removal of n 4 *)
Lemma compress_file_kw q n i j : quiet q -> fs_wf (wfs q) -> lookup (wfs q) n = Some i -> lookup (wfs q) (gz_name n) = None ->
  let f := wfs q in
  let fa := fst (create_file f (gz_name n) 2%N (wnow q)) in
  let fb := set_gz fa (length (inodes f)) 1%N (content f i) in
  let fc := unlink fb n in
  compress_file (kw q (S j)) n
  = (true, match j with
           | 0 => kw q 0
           | 1 | 2 => kw (set_fs q fa) 0
           | 3 => kw (set_fs q fb) 0
           | S (S (S (S j'))) => kw (set_fs q fc) (S j')
           end).
Proof.
  intros Q W Hn Hg f fa fb fc. rewrite (compress_file_effects (kw q (S j)) n i (proj1 Q) W Hn Hg).
  destruct j as [|[|[|[|j']]]]; reflexivity.
Qed.

Lemma p_remove_budget q x i j : quiet q -> lookup (wfs q) x = Some i ->
  p_remove (kw q (S j)) x = (true, match j with 0 => kw q 0 | S j' => kw (set_fs q (unlink (wfs q) x)) (S j') end).
Proof. intros Q H. rewrite p_remove_kw by exact Q. rewrite H. destruct j; reflexivity. Qed.

(* ------------------------------------------------------------------ the loop: entries that are kept *)
Lemma cleanup_loop_skip ll total : forall a w b idx,
  (forall k x, nth_error a k = Some x -> act ll total (idx + k) x = AKeep) ->
  cleanup_loop w (a ++ b) idx ll total None = cleanup_loop w b (idx + length a) ll total None.
Proof.
  induction a as [|x a IH]; intros w b idx H.
  - cbn [app length]. rewrite Nat.add_0_r. reflexivity.
  - cbn [app]. rewrite cleanup_loop_cons. pose proof (H 0 x eq_refl) as H0. rewrite Nat.add_0_r in H0. rewrite H0.
    rewrite IH.
    + cbn [length]. replace (S idx + length a) with (idx + S (length a)) by lia. reflexivity.
    + intros k y Hk. replace (S idx + k) with (idx + S k) by lia. apply (H (S k) y Hk).
Qed.

Lemma cleanup_loop_all_keep ll total a w idx :
  (forall k x, nth_error a k = Some x -> act ll total (idx + k) x = AKeep) -> cleanup_loop w a idx ll total None = (true, w).
Proof. intros H. rewrite <- (app_nil_r a). rewrite cleanup_loop_skip by exact H. reflexivity. Qed.

Lemma act_keep_below ll total idx x : idx < ll -> ll <= total -> act ll total idx x = AKeep.
Proof. intros H1 H2. apply act_keep. split; [lia | left; exact H1]. Qed.
Lemma act_keep_gz ll total idx x : idx < total -> ext_is x gz_sfx = true -> act ll total idx x = AKeep.
Proof. intros H1 H2. apply act_keep. split; [exact H1 | right; exact H2]. Qed.

Lemma nth_error_rev_map_in {A} (g : nat -> A) a cnt k x : nth_error (rev (map g (seq a cnt))) k = Some x ->
  k < cnt /\ exists i, a <= i < a + cnt /\ x = g i.
Proof.
  rewrite nth_error_rev_map_seq. destruct (Nat.ltb_spec k cnt) as [H|H]; [|discriminate]. intros E. injection E as <-.
  split; [exact H|]. exists (a + cnt - 1 - k). split; [lia | reflexivity].
Qed.

Lemma rev_map_seq_S {A} (g : nat -> A) a cnt : rev (map g (seq a (S cnt))) = rev (map g (seq (S a) cnt)) ++ [g a].
Proof. reflexivity. Qed.
Lemma rev_map_seq_length {A} (g : nat -> A) a cnt : length (rev (map g (seq a cnt))) = cnt.
Proof. rewrite rev_length, map_length, seq_length. reflexivity. Qed.

(* ------------------------------------------------------------------ the states of the file system *)
(* f0: the file system before the cleanup (rCURRENT is not touched) *)
Record kst (c : config) (f0 f : fs) (closed : list bytes) (ocur : option bytes) (lo mid : nat) (red : option bool) : Prop := {
  ks_wf : fs_wf f;
  ks_nd : nodup_names f;
  ks_x : xdir c (file_of f) closed ocur lo mid red;
  ks_cur : same_at f0 f (cname c) }.

Lemma same_at_upd f f' a v m : lookup f' m = lookup f m -> (forall y, file_of f' y = fupd (file_of f) a v y) -> m <> a -> same_at f f' m.
Proof. intros H1 H2 H3. split; [exact H1|]. rewrite H2. apply fupd_other. exact H3. Qed.

Lemma same_at_create f a gz now x : fs_wf f -> x <> a -> same_at f (fst (create_file f a gz now)) x.
Proof.
  intros W H. apply (same_at_upd f _ a (Some {| fdata := []; fgz := gz; fborn := now; fdir := false |})).
  - pose proof (create_file_spec f a gz now) as CS. destruct (create_file f a gz now) as [f' i].
    destruct CS as (_ & _ & _ & Lo). cbn [fst]. apply Lo. exact H.
  - intros y. apply file_of_create. exact W.
  - exact H.
Qed.

Lemma same_at_set_gz f a i st d x : fs_wf f -> lookup f a = Some i -> x <> a -> same_at f (set_gz f i st d) x.
Proof.
  intros W La H.
  apply (same_at_upd f _ a (Some {| fdata := d; fgz := st; fborn := fborn (inode f i); fdir := false |})).
  - reflexivity.
  - intros y. apply (file_of_set_gz f a); assumption.
  - exact H.
Qed.

Lemma same_at_unlink f a m : m <> a -> same_at f (unlink f a) m.
Proof.
  intros H. apply (same_at_upd f _ a None); [|apply file_of_unlink | exact H].
  destruct (unlink_spec f a) as (_ & _ & UO). apply UO. exact H.
Qed.

Lemma kst_lookup_red c f0 f closed ocur lo mid : kst c f0 f closed ocur lo mid None -> mid <= length closed ->
  lookup f (gname c mid) = None.
Proof. intros K H. apply file_of_none. apply (xdir_no_gz c _ closed ocur lo mid None mid (ks_x _ _ _ _ _ _ _ _ K)); [lia | left; reflexivity]. Qed.

Lemma kst_create c f0 f closed ocur lo mid now : kst c f0 f closed ocur lo mid None -> mid < length closed ->
  kst c f0 (fst (create_file f (gname c mid) 2%N now)) closed ocur lo mid (Some false).
Proof.
  intros K Hm. pose proof K as [W Nd X Sc].
  assert (Lg : lookup f (gname c mid) = None) by (apply (kst_lookup_red c f0 f closed ocur lo mid K); lia).
  constructor.
  - apply wf_create; assumption.
  - apply nd_create; assumption.
  - eapply xdir_ext; [intros y; apply file_of_create; exact W|]. apply xdir_create_gz; [exact X | exact Hm|]. repeat split.
  - apply (same_at_trans _ f); [exact Sc|]. apply same_at_create; [exact W|]. intros E. exact (gname_not_cname _ _ (eq_sym E)).
Qed.

Lemma kst_finish c f0 f closed ocur lo mid ino : kst c f0 f closed ocur lo mid (Some false) ->
  lookup f (gname c mid) = Some ino ->
  kst c f0 (set_gz f ino 1%N (nth mid closed [])) closed ocur lo mid (Some true).
Proof.
  intros K Lg. pose proof K as [W Nd X Sc]. constructor.
  - apply wf_set_gz. exact W.
  - apply nd_set_gz. exact Nd.
  - eapply xdir_ext; [intros y; apply (file_of_set_gz f (gname c mid)); assumption|]. apply xdir_finish_gz; [exact X|]. repeat split.
  - apply (same_at_trans _ f); [exact Sc|]. apply (same_at_set_gz f (gname c mid)); [exact W | exact Lg|].
    intros E. exact (gname_not_cname _ _ (eq_sym E)).
Qed.

Lemma kst_rm_orig c f0 f closed ocur lo mid : kst c f0 f closed ocur lo mid (Some true) ->
  kst c f0 (unlink f (rname c mid)) closed ocur lo (S mid) None.
Proof.
  intros [W Nd X Sc]. constructor.
  - apply wf_unlink. exact W.
  - apply nd_unlink. exact Nd.
  - eapply xdir_ext; [intros y; apply file_of_unlink|]. apply xdir_remove_orig. exact X.
  - apply (same_at_trans _ f); [exact Sc|]. apply same_at_unlink. intros E. exact (rname_not_cname _ _ (eq_sym E)).
Qed.

Lemma kst_rm_lo c f0 f closed ocur lo mid : kst c f0 f closed ocur lo mid None -> lo < mid ->
  kst c f0 (unlink f (gname c lo)) closed ocur (S lo) mid None.
Proof.
  intros [W Nd X Sc] Hl. constructor.
  - apply wf_unlink. exact W.
  - apply nd_unlink. exact Nd.
  - eapply xdir_ext; [intros y; apply file_of_unlink|]. apply xdir_remove_lo; assumption.
  - apply (same_at_trans _ f); [exact Sc|]. apply same_at_unlink. intros E. exact (gname_not_cname _ _ (eq_sym E)).
Qed.

Lemma kst_rm_mid c f0 f closed ocur mid : kst c f0 f closed ocur mid mid None -> mid < length closed ->
  kst c f0 (unlink f (rname c mid)) closed ocur (S mid) (S mid) None.
Proof.
  intros [W Nd X Sc] Hl. constructor.
  - apply wf_unlink. exact W.
  - apply nd_unlink. exact Nd.
  - eapply xdir_ext; [intros y; apply file_of_unlink|]. apply xdir_remove_mid; assumption.
  - apply (same_at_trans _ f); [exact Sc|]. apply same_at_unlink. intros E. exact (rname_not_cname _ _ (eq_sym E)).
Qed.

Lemma kst_plain_lookup c f0 f closed ocur lo mid red i : kst c f0 f closed ocur lo mid red -> mid <= i < length closed ->
  exists j, lookup f (rname c i) = Some j /\ content f j = nth i closed [].
Proof.
  intros K Hi. destruct (xd_plain _ _ _ _ _ _ _ (ks_x _ _ _ _ _ _ _ _ K) i Hi) as (fl & Ff & _ & _ & C).
  apply file_of_some in Ff. destruct Ff as (j & Lj & ->). exists j. split; [exact Lj | exact C].
Qed.
Lemma kst_arch_lookup c f0 f closed ocur lo mid red i : kst c f0 f closed ocur lo mid red -> lo <= i < mid ->
  exists j, lookup f (gname c i) = Some j.
Proof.
  intros K Hi. destruct (xd_arch _ _ _ _ _ _ _ (ks_x _ _ _ _ _ _ _ _ K) i Hi) as (fl & Ff & _).
  apply file_of_some in Ff. destruct Ff as (j & Lj & _). exists j. exact Lj.
Qed.

(* ------------------------------------------------------------------ a numbered file that the cleanup leaves alone *)
(* NumbersDirect naming tells the cleanup the file being written, r<keep>; Numbers naming has rCURRENT and tells it nothing *)
Definition keep_at (c : config) (keep : option nat) (f0 f : fs) : Prop :=
  match keep with Some i => same_at f0 f (rname c i) | None => True end.
Definition below (keep : option nat) (i : nat) : Prop := match keep with Some k => i < k | None => True end.

Definition kstx (c : config) (keep : option nat) (f0 f : fs) (all : list bytes) (ocur : option bytes) (lo mid : nat)
  (red : option bool) : Prop := kst c f0 f all ocur lo mid red /\ keep_at c keep f0 f.

Lemma keep_step c keep f0 f f' a : keep_at c keep f0 f -> (forall x, x <> a -> same_at f f' x) ->
  (forall i, keep = Some i -> rname c i <> a) -> keep_at c keep f0 f'.
Proof.
  destruct keep as [i|]; cbn [keep_at]; [|trivial]. intros S H N. apply (same_at_trans _ f); [exact S|]. apply H. exact (N i eq_refl).
Qed.

Lemma rname_below c keep mid : below keep mid -> forall i, keep = Some i -> rname c i <> rname c mid.
Proof. intros B i -> E. apply rname_inj in E. cbn [below] in B. lia. Qed.
Lemma rname_not_gname c (keep : option nat) j : forall i, keep = Some i -> rname c i <> gname c j.
Proof. intros i _ E. exact (gname_ne_rname _ _ _ (eq_sym E)). Qed.

Lemma kstx_create c keep f0 f all ocur lo mid now : kstx c keep f0 f all ocur lo mid None -> mid < length all ->
  kstx c keep f0 (fst (create_file f (gname c mid) 2%N now)) all ocur lo mid (Some false).
Proof.
  intros [K S] Hm. split; [apply kst_create; assumption|]. apply (keep_step c keep f0 f _ (gname c mid) S); [|apply rname_not_gname].
  intros x Hx. apply same_at_create; [exact (ks_wf _ _ _ _ _ _ _ _ K) | exact Hx].
Qed.

Lemma kstx_finish c keep f0 f all ocur lo mid ino : kstx c keep f0 f all ocur lo mid (Some false) ->
  lookup f (gname c mid) = Some ino ->
  kstx c keep f0 (set_gz f ino 1%N (nth mid all [])) all ocur lo mid (Some true).
Proof.
  intros [K S] Lg. split; [apply kst_finish; assumption|]. apply (keep_step c keep f0 f _ (gname c mid) S); [|apply rname_not_gname].
  intros x Hx. apply (same_at_set_gz f (gname c mid)); [exact (ks_wf _ _ _ _ _ _ _ _ K) | exact Lg | exact Hx].
Qed.

Lemma kstx_rm_orig c keep f0 f all ocur lo mid : kstx c keep f0 f all ocur lo mid (Some true) -> below keep mid ->
  kstx c keep f0 (unlink f (rname c mid)) all ocur lo (S mid) None.
Proof.
  intros [K S] B. split; [apply kst_rm_orig; assumption|].
  apply (keep_step c keep f0 f _ (rname c mid) S); [intros x; apply same_at_unlink | exact (rname_below c keep mid B)].
Qed.

Lemma kstx_rm_lo c keep f0 f all ocur lo mid : kstx c keep f0 f all ocur lo mid None -> lo < mid ->
  kstx c keep f0 (unlink f (gname c lo)) all ocur (S lo) mid None.
Proof.
  intros [K S] Hm. split; [apply kst_rm_lo; assumption|].
  apply (keep_step c keep f0 f _ (gname c lo) S); [intros x; apply same_at_unlink | apply rname_not_gname].
Qed.

Lemma kstx_rm_mid c keep f0 f all ocur mid : kstx c keep f0 f all ocur mid mid None -> mid < length all -> below keep mid ->
  kstx c keep f0 (unlink f (rname c mid)) all ocur (S mid) (S mid) None.
Proof.
  intros [K S] Hm B. split; [apply kst_rm_mid; assumption|].
  apply (keep_step c keep f0 f _ (rname c mid) S); [intros x; apply same_at_unlink | exact (rname_below c keep mid B)].
Qed.

(* ------------------------------------------------------------------ one compression with a budget *)
Lemma compress_budget c keep q all ocur lo mid j :
  quiet q -> kstx c keep (wfs q) (wfs q) all ocur lo mid None -> mid < length all -> below keep mid ->
  exists r w1, compress_file (kw q (S j)) (rname c mid) = (r, w1) /\
    ( (exists fc j', j = S (S (S (S j'))) /\ r = true /\ w1 = kw (set_fs q fc) (S j') /\ kstx c keep (wfs q) fc all ocur lo (S mid) None)
      \/ (exists f' red, w1 = kw (set_fs q f') 0 /\ kstx c keep (wfs q) f' all ocur lo mid red) ).
Proof.
  intros Q KS Hm B. pose proof KS as [K SL]. pose proof K as [W Nd X Sc].
  destruct (kst_plain_lookup c _ _ all ocur lo mid None mid K ltac:(lia)) as (i & Li & Ci).
  assert (Lg : lookup (wfs q) (gz_name (rname c mid)) = None) by (apply (kst_lookup_red c _ _ all ocur lo mid K); lia).
  pose proof (compress_file_kw q (rname c mid) i j Q W Li Lg) as CF. cbv zeta in CF. rewrite Ci in CF.
  fold (gname c mid) in CF.
  pose proof (kstx_create c keep (wfs q) (wfs q) all ocur lo mid (wnow q) KS Hm) as Ka.
  set (fa := fst (create_file (wfs q) (gname c mid) 2%N (wnow q))) in *.
  assert (Lga : lookup fa (gname c mid) = Some (length (inodes (wfs q)))).
  { pose proof (create_file_spec (wfs q) (gname c mid) 2%N (wnow q)) as CS. unfold create_file in CS. destruct CS as (_ & _ & La & _). exact La. }
  pose proof (kstx_finish c keep (wfs q) fa all ocur lo mid _ Ka Lga) as Kb.
  set (fb := set_gz fa (length (inodes (wfs q))) 1%N (nth mid all [])) in *.
  pose proof (kstx_rm_orig c keep (wfs q) fb all ocur lo mid Kb B) as Kc.
  eexists _, _. split; [exact CF|].
  destruct j as [|[|[|[|j']]]].
  - right. exists (wfs q), None. split; [reflexivity | exact KS].
  - right. exists fa, (Some false). split; [reflexivity | exact Ka].
  - right. exists fa, (Some false). split; [reflexivity | exact Ka].
  - right. exists fb, (Some true). split; [reflexivity | exact Kb].
  - left. exists (unlink fb (rname c mid)), j'. split; [reflexivity|]. split; [reflexivity|]. split; [reflexivity | exact Kc].
Qed.

(* ------------------------------------------------------------------ one cleanup with a budget *)
(* the limits cleanup_impl works with: told the file being written, it keeps at least one plain file *)
Definition klimc (k : cleanup) (cur : option bytes) : option (nat * nat) :=
  match cur with None => klim k | Some _ => klimd k end.

Lemma cleanup_impl_kw_unfold c q j k flt n m cur : klimc k cur = Some (n, m) -> quiet q ->
  cleanup_impl c (kw q j) k flt cur =
  match list_log_gz (woff q) (c_spec c) (fixed_of c (kw q j)) (wfs q) flt with
  | None => (Panic, kw q j)
  | Some files =>
    let '(ok0, w1', files') := remove_redundant (kw q j) (redundant_gz files) files in
    if negb ok0 then (Err, w1') else
    let '(ok, w2) := cleanup_loop w1' files' 0 n (n + m) cur in ((if ok then Ok tt else Err), w2)
  end.
Proof.
  intros H Q. destruct cur as [p|]; cbn [klimc] in H.
  - unfold klimd in H.
    destruct k as [|a|b|a b]; cbn [klim] in H; try discriminate; injection H as <- <-;
      unfold cleanup_impl; cbn [andb]; rewrite (tick_kw q j Q); try (destruct a as [|a]); reflexivity.
  - destruct k; cbn [klim] in H; try discriminate; injection H as <- <-;
      unfold cleanup_impl; cbn [andb]; rewrite (tick_kw q j Q); reflexivity.
Qed.

Lemma loop_tail_dead w files idx ll total (r1 : bool) : dead w ->
  exists r, (if r1 then cleanup_loop w files idx ll total None else (false, w)) = (r, w).
Proof. intros D. destruct r1; [apply cleanup_loop_dead; exact D | eauto]. Qed.

(* all: the contents of the numbered files; L - 1 - (n + m), L - 1 - n: where the archives and the plain files began before
   the rotation that made the L-th file; (n, m) the limits in force.  A kept file is the newest one, position 0 of the
   listing, and within the limit n >= 1 anyway. *)
Lemma cleanup_budget_x c k keep n m q all ocur j :
  fts (c_spec c) = false -> klimc k (option_map (rname c) keep) = Some (n, m) -> sfx_ok (c_spec c) -> quiet q ->
  match keep with Some i => i = length all - 1 /\ 1 <= n | None => True end ->
  kstx c keep (wfs q) (wfs q) all ocur (length all - 1 - (n + m)) (length all - 1 - n) None ->
  exists r w', cleanup_impl c (kw q (S j)) k IFNum (option_map (rname c) keep) = (r, w') /\
    ( (exists f' j', w' = kw (set_fs q f') (S j') /\ r = Ok tt
                      /\ kstx c keep (wfs q) f' all ocur (length all - (n + m)) (length all - n) None)
      \/ (exists f' lo mid red, w' = kw (set_fs q f') 0 /\ kstx c keep (wfs q) f' all ocur lo mid red
                                /\ lo <= length all - (n + m) /\ mid <= length all - n) ).
Proof.
  intros Hts Hk Hsfx Q Hkeep KS.
  set (L := length all) in *. pose proof KS as [K SL]. pose proof K as [W Nd X Sc].
  assert (KD : kdir c (wfs q) all (L - 1 - (n + m)) (L - 1 - n)) by (eapply xdir_kdir; eassumption).
  pose proof (kd_le _ _ _ _ _ KD) as Hle. fold L in Hle.
  rewrite (cleanup_impl_kw_unfold c q (S j) k IFNum n m _ Hk Q), (fixed_of_fixed0 c _ Hts).
  rewrite (list_log_gz_numbers c (wfs q) (woff q) _ _ L Hsfx (kdir_shape _ _ _ _ _ KD)).
  rewrite (listing_no_redundant c _ _ L Hsfx Hle). cbn [remove_redundant negb].
  assert (EC : forall w, cleanup_loop w (listing c (L - 1 - (n + m)) (L - 1 - n) L) 0 n (n + m) (option_map (rname c) keep)
                         = cleanup_loop w (listing c (L - 1 - (n + m)) (L - 1 - n) L) 0 n (n + m) None).
  { destruct keep as [k0|]; [|reflexivity]. destruct Hkeep as [-> Hn1]. intros w. apply cleanup_loop_cur_kept.
    intros p Hp. cbn [Nat.add]. apply listing_nth_inv in Hp; [|exact Hle]. destruct Hp as [Hp1 Ee].
    assert (p = 0).
    { unfold entry in Ee. destruct (L - 1 - n <=? L - 1 - p).
      - apply rname_inj in Ee. lia.
      - exfalso. exact (gname_ne_rname _ _ _ (eq_sym Ee)). }
    subst p. apply act_keep. split; [lia | left; lia]. }
  rewrite EC. clear EC.
  destruct (Nat.le_gt_cases L n) as [HLn'|HLn'].
  - (* fewer files than the limit: nothing to do *)
    rewrite cleanup_loop_all_keep.
    + exists (Ok tt), (kw q (S j)). split; [reflexivity|]. left. exists (wfs q), j. split; [reflexivity|]. split; [reflexivity|].
      replace (L - (n + m)) with (L - 1 - (n + m)) by lia. replace (L - n) with (L - 1 - n) by lia. exact KS.
    + intros k0 x Hk0. apply listing_nth_inv in Hk0; [|exact Hle]. apply act_keep_below; lia.
  - (* position n: the oldest plain file *)
    assert (Emid : L - (L - 1 - n) = S n) by lia.
    unfold listing. rewrite Emid, rev_map_seq_S, <- app_assoc. cbn [app].
    rewrite cleanup_loop_skip by (intros k0 x Hk0; apply nth_error_rev_map_in in Hk0; apply act_keep_below; lia).
    rewrite rev_map_seq_length. cbn [Nat.add]. rewrite cleanup_loop_cons.
    destruct (kst_plain_lookup c _ _ all ocur _ _ None (L - 1 - n) K ltac:(fold L; lia)) as (i & Li & Ci).
    assert (Bm : below keep (L - 1 - n)).
    { destruct keep as [k0|]; [|exact I]. destruct Hkeep as [-> Hn1]. cbn [below]. fold L. lia. }
    destruct (Nat.eq_dec m 0) as [->|Hm0].
    + (* deletion only *)
      rewrite (proj2 (act_remove n (n + 0) n (rname c (L - 1 - n)))) by lia.
      rewrite (p_remove_budget q _ i j Q Li).
      replace (L - 1 - (n + 0) ) with (L - 1 - n) in * by lia.
      replace (L - 1 - n - (L - 1 - n)) with 0 by lia. cbn [seq map rev].
      destruct j as [|j'].
      * exists (Ok tt), (kw q 0). split; [reflexivity|]. right. exists (wfs q), (L - 1 - n), (L - 1 - n), None.
        split; [reflexivity|]. split; [exact KS | lia].
      * eexists (Ok tt), _. split; [reflexivity|]. left. exists (unlink (wfs q) (rname c (L - 1 - n))), j'.
        split; [reflexivity|]. split; [reflexivity|].
        replace (L - (n + 0)) with (S (L - 1 - n)) by lia. replace (L - n) with (S (L - 1 - n)) by lia.
        apply kstx_rm_mid; [exact KS | fold L; lia | exact Bm].
    + (* compression of the oldest plain file *)
      rewrite (proj2 (act_compress n (n + m) n (rname c (L - 1 - n)))) by (split; [lia | apply rname_not_gz; exact Hsfx]).
      destruct (compress_budget c keep q all ocur _ _ j Q KS ltac:(fold L; lia) Bm) as (r1 & w1 & E1 & [(fc & j' & -> & -> & -> & Kc) | (f' & red & -> & Kd)]).
      * rewrite E1.
        destruct (Nat.lt_ge_cases (L - 1 - n) m) as [Hlt|Hge].
        -- (* fewer archives than the limit *)
           rewrite cleanup_loop_all_keep.
           ++ eexists (Ok tt), _. split; [reflexivity|]. left. exists fc, j'. split; [reflexivity|]. split; [reflexivity|].
              replace (L - (n + m)) with (L - 1 - (n + m)) by lia. replace (L - n) with (S (L - 1 - n)) by lia. exact Kc.
           ++ intros k0 x Hk0. apply nth_error_rev_map_in in Hk0. destruct Hk0 as (Hk1 & i0 & _ & ->).
              apply act_keep_gz; [lia | apply gname_is_gz].
        -- (* the oldest archive is removed *)
           assert (Ear : L - 1 - n - (L - 1 - (n + m)) = S (m - 1)) by lia.
           rewrite Ear, rev_map_seq_S.
           rewrite cleanup_loop_skip by (intros k0 x Hk0; apply nth_error_rev_map_in in Hk0; destruct Hk0 as (Hk1 & i0 & _ & ->);
                                          apply act_keep_gz; [lia | apply gname_is_gz]).
           rewrite rev_map_seq_length. replace (S n + (m - 1)) with (n + m) by lia. rewrite cleanup_loop_cons.
           rewrite (proj2 (act_remove n (n + m) (n + m) (gname c (L - 1 - (n + m))))) by lia.
           destruct (kst_arch_lookup c _ _ all ocur _ _ None (L - 1 - (n + m)) (proj1 Kc) ltac:(lia)) as (ig & Lig).
           rewrite (p_remove_budget (set_fs q fc) _ ig j' (quiet_set_fs q fc Q) Lig).
           destruct j' as [|j''].
           ++ eexists (Ok tt), _. split; [reflexivity|]. right. exists fc, (L - 1 - (n + m)), (S (L - 1 - n)), None.
              split; [reflexivity|]. split; [exact Kc | lia].
           ++ eexists (Ok tt), _. split; [reflexivity|]. left. exists (unlink fc (gname c (L - 1 - (n + m)))), j''.
              split; [reflexivity|]. split; [reflexivity|].
              replace (L - (n + m)) with (S (L - 1 - (n + m))) by lia. replace (L - n) with (S (L - 1 - n)) by lia.
              apply kstx_rm_lo; [exact Kc | lia].
      * rewrite E1.
        destruct (loop_tail_dead (kw (set_fs q f') 0) (rev (map (gname c) (seq (L - 1 - (n + m)) (L - 1 - n - (L - 1 - (n + m)))))) (S n) n (n + m) r1
                    (dead_kw _ (quiet_set_fs q f' Q))) as [r2 E2].
        rewrite E2. eexists _, _. split; [reflexivity|]. right. exists f', (L - 1 - (n + m)), (L - 1 - n), red.
        split; [reflexivity|]. split; [exact Kd | lia].
Qed.

Lemma cleanup_budget c crit k n m q closed ocur j :
  numkcfg c crit k -> klim k = Some (n, m) -> sfx_ok (c_spec c) -> quiet q ->
  kst c (wfs q) (wfs q) closed ocur (k_lo k (length closed - 1)) (k_mid k (length closed - 1)) None ->
  exists r w', cleanup_impl c (kw q (S j)) k IFNum None = (r, w') /\
    ( (exists f' j', w' = kw (set_fs q f') (S j') /\ r = Ok tt
                      /\ kst c (wfs q) f' closed ocur (k_lo k (length closed)) (k_mid k (length closed)) None)
      \/ (exists f' lo mid red, w' = kw (set_fs q f') 0 /\ kst c (wfs q) f' closed ocur lo mid red
                                /\ uncl k (length closed) lo mid) ).
Proof.
  intros (Hrot & Hts & Hlink & Has & Hbg) Hk Hsfx Q K. unfold uncl, k_lo, k_mid in *. rewrite Hk in *.
  destruct (cleanup_budget_x c k None n m q closed ocur j Hts Hk Hsfx Q I (conj K I))
    as (r & w' & E & [(f' & j' & Ew & Er & K' & _) | (f' & lo & mid & red & Ew & [K' _] & Hu)]); exists r, w'; (split; [exact E|]).
  - left. exists f', j'. split; [exact Ew|]. split; [exact Er | exact K'].
  - right. exists f', lo, mid, red. split; [exact Ew|]. split; [exact K' | exact Hu].
Qed.

(* fewer closed files than the limit for plain files: the cleanup has no effect (and no kill point) *)
Lemma cleanup_budget_noop c crit k n m q closed lo mid j :
  numkcfg c crit k -> klim k = Some (n, m) -> sfx_ok (c_spec c) -> quiet q ->
  kdir c (wfs q) closed lo mid -> length closed <= n ->
  cleanup_impl c (kw q j) k IFNum None = (Ok tt, kw q j).
Proof.
  intros (Hrot & Hts & Hlink & Has & Hbg) Hk Hsfx Q KD Hn.
  pose proof (kd_le _ _ _ _ _ KD) as Hle.
  rewrite (cleanup_impl_kw_unfold c q j k IFNum n m None Hk Q), (fixed_of_fixed0 c _ Hts).
  rewrite (list_log_gz_numbers c (wfs q) (woff q) _ _ _ Hsfx (kdir_shape _ _ _ _ _ KD)).
  rewrite (listing_no_redundant c _ _ _ Hsfx Hle). cbn [remove_redundant negb].
  rewrite cleanup_loop_all_keep; [reflexivity|].
  intros k0 x Hk0. apply listing_nth_inv in Hk0; [|exact Hle]. apply act_keep_below; lia.
Qed.
