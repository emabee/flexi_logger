(* TimestampsDirect naming, direct mode (no user-space buffer), a process that is killed at an arbitrary effect: no
   acknowledged record is lost, nothing else is in the files, and what is left is a directory that a stopped writer could have
   left behind (tsd_view with keys_ok keys) - so that a new writer starts cleanly on it (TsdKillRestart.v).

   As for NumbersDirect naming (NumDKill.v) a rotation of TimestampsDirect naming is ONE effect: the creation of the file for
   the present second (made collision-free by two directory listings, which are no effects); nothing is renamed.  The kill
   counter, `acked`, `with_w`, the dead process: NumKill.v / KillFacts.v; the clock after the death: KillEnv.v. *)
Require Import FL.Base.Bytes FL.Base.BytesFacts FL.Base.PathName FL.Fs.Fs FL.Fs.FsFacts FL.Time.TsFormat
  FL.Names.FileSpec FL.Names.SortFacts FL.Names.FamilyFacts FL.Flw.Model FL.Flw.ModelFacts FL.Flw.NumFs FL.Flw.NumInv
  FL.Flw.Run FL.Flw.NumRun FL.Flw.NumListing FL.Flw.NumTheorems FL.Flw.NumRestart
  FL.Flw.KillFacts FL.Flw.NumKill FL.Flw.NumKillRestart FL.Flw.NumDTheorems
  FL.Flw.TsTime FL.Flw.TsNames FL.Flw.TsInv FL.Flw.TsRun FL.Flw.TsTheorems FL.Flw.TsRestart
  FL.Flw.TsdInv FL.Flw.TsdRun FL.Flw.TsdTheorems FL.Flw.TsdRestartInv FL.Flw.TsdRestart FL.Flw.KillEnv FL.Flw.NumAge FL.Flw.TsdAge.
From Coq Require Import ZifyN ZifyNat ZifyBool.
Import String.StringSyntax.
Open Scope nat_scope.

(* ------------------------------------------------------------------ the directory under a change of the environment *)
(* the invariant looks at the file system, the zone and - for the range of the keys - at the clock, which may have advanced *)
Lemma tsdinv_later c e lo q q' wr keys closed : TsdInv c e lo q wr keys closed ->
  wfs q' = wfs q -> quiet q' -> (wnow q <= wnow q')%Z -> eoff c q' = e -> TsdInv c e lo q' wr keys closed.
Proof.
  intros [Q W Hnd Hoff Hlen Hc Hcp Hcl Hon Hko Hrg Hwr Hca] F Q' N' E'. constructor; try rewrite F; try assumption.
  intros k Ik. specialize (Hrg k Ik). lia.
Qed.

Lemma dir_tsd_later c e lo q q' d : dir_tsd c e lo q d ->
  wfs q' = wfs q -> quiet q' -> (wnow q <= wnow q')%Z -> eoff c q' = e -> dir_tsd c e lo q' d.
Proof.
  intros D F Q' N' E'. destruct d as [[[keys closed] cur]|]; cbn [dir_tsd] in *.
  - destruct D as [wr [I [Hp V]]]. exists wr. split; [exact (tsdinv_later c e lo q q' wr keys closed I F Q' N' E')|].
    split; [exact Hp|]. unfold cur_view in *. rewrite F. exact V.
  - destruct D as [A [B C]]. rewrite F. repeat split; try assumption. lia.
Qed.

(* the dead process: its world w (zone off, clock t) holds the directory d; n bounds the number of closed files *)
Definition DeadTd (c : config) (e off lo : Z) (n : nat) (t : Z) (w : world) (d : dview) : Prop :=
  dead w /\ woff w = off /\ wnow w = t /\ eoff c w = e /\ dir_tsd c e lo (calm w) d /\ length (closedD d) <= n.

Lemma dead_of_quiet c e lo qd d n : quiet qd -> eoff c qd = e -> dir_tsd c e lo qd d -> length (closedD d) <= n ->
  DeadTd c e (woff qd) lo n (wnow qd) (kw qd 0) d.
Proof.
  intros Q Ho D Hn. split; [apply dead_kw; exact Q|]. split; [reflexivity|]. split; [reflexivity|]. split; [exact Ho|].
  split; [|exact Hn]. apply (dir_tsd_later c e lo qd); [exact D | reflexivity | apply quiet_calm; apply Q | apply Z.le_refl | exact Ho].
Qed.

Lemma deadtd_after c e off lo n t w w' d dt : DeadTd c e off lo n t w d -> after_dead w w' dt -> (0 <= dt)%Z ->
  DeadTd c e off lo n (t + dt) w' d.
Proof.
  intros [Dw [Ho [Hn [He [D L]]]]] [Dw' [F [N O]]] Hdt.
  split; [exact Dw'|]. split; [congruence|]. split; [lia|].
  assert (He' : eoff c w' = e) by (unfold eoff in *; rewrite O; exact He).
  split; [exact He'|]. split; [|exact L].
  apply (dir_tsd_later c e lo (calm w)); [exact D | cbn [calm set_acts set_kill wfs]; exact F | apply quiet_calm; apply Dw'
    | cbn [calm set_acts set_kill wnow]; lia | exact He'].
Qed.

Lemma deadtd_mono c e off lo n m t w d : n <= m -> DeadTd c e off lo n t w d -> DeadTd c e off lo m t w d.
Proof. intros H [A [B [C [D [E F]]]]]. repeat split; try assumption; try apply A. lia. Qed.

(* the world of x is a quiet world q (zone off, clock t) with the counter at S m (alive, m effects left) *)
Definition KRelTd (c : config) (crit : criterion) (e off lo : Z) (n : nat) (t : Z) (x : sys) (a : aview) : Prop :=
  exists q m, s_w x = kw q (S m) /\ woff q = off /\ wnow q = t /\ RelTd c crit e lo n (with_w x q) a.

(* the directory d is the abstract view a, possibly with one more, EMPTY, newest file *)
Definition near (d : dview) (a : aview) : Prop := filesD d = files_of a \/ filesD d = files_of a ++ [[]].

Lemma s_run_app m : forall l1 l2 a, s_run m a (l1 ++ l2) = s_run m (s_run m a l1) l2.
Proof. induction l1 as [|o r IH]; intros l2 a; [reflexivity|]. cbn [app s_run]. apply IH. Qed.

Section DirectTd.
Variables (c : config) (crit : criterion) (e off lo hi : Z).
Hypothesis Hcfg : tsdcfg c crit.
Hypothesis Hcap : c_cap c = None.
Hypothesis Htag : tag_ok c.
Hypothesis Hyears : years_ok e lo hi.

Lemma direct_wr_td q wr keys closed : TsdInv c e lo q wr keys closed -> wpend wr = [] /\ wcap wr = None.
Proof.
  intros I. pose proof (td_wr _ _ _ _ _ _ _ I) as Hw. pose proof (td_cap _ _ _ _ _ _ _ I) as Hc. rewrite Hcap in Hc.
  unfold wr_ok in Hw. rewrite Hc in Hw. split; assumption.
Qed.

Lemma tsdinv_dird q wr keys closed : TsdInv c e lo q wr keys closed -> dir_tsd c e lo q (Some (keys, closed, cur_view q wr)).
Proof. intros I. exists wr. split; [exact I|]. split; [apply (direct_wr_td q wr keys closed I) | reflexivity]. Qed.

(* ---- one rotation with a budget: one effect, the creation of the file of the present second ---- *)
Lemma mount_next_ktd q wr keys closed ts roll force n :
  TsdInv c e lo q wr keys closed -> (wnow q <= hi)%Z -> (N.of_nat (length keys) <= usize_max)%N ->
  force || rotation_necessary q roll = true ->
  let k0 := nth (length closed) keys kd in
  let knew := (wnow q, count (wnow q) keys) in
  match n with
  | 0 => exists r st',
      mount_next c (kw q 1) (Active (Some (mk_rs (NSTs ts None std_fmt) roll)) wr (kname c e k0)) force = (r, kw q 0, st')
  | S n' => exists q' wr' roll',
      mount_next c (kw q (S (S n'))) (Active (Some (mk_rs (NSTs ts None std_fmt) roll)) wr (kname c e k0)) force
      = (Ok tt, kw q' (S n'), Active (Some (mk_rs (NSTs (wnow q) None std_fmt) roll')) wr' (kname c e knew))
      /\ TsdInv c e lo q' wr' (keys ++ [knew]) (closed ++ [cur_view q wr]) /\ cur_view q' wr' = [] /\ roll_size_ok roll' 0
      /\ same_env q q' /\ (forall m cur, roll = RSize m cur -> exists cur', roll' = RSize m cur')
  end.
Proof.
  intros I Hhi Hmax Hnec k0 knew. pose proof Hcfg as [Hrot [Hts [Hlink _]]].
  pose proof I as [Q W Hnd Hoff Hlen Hc Hcp Hcl Hon Hko Hrg Hwr Hca].
  destruct (direct_wr_td q wr keys closed I) as [Hp Hc0].
  pose proof (tsdinv_now _ _ _ _ _ _ _ I) as Hlo.
  assert (Yk : forall k, In k keys -> in_years e (fst k)).
  { intros k Ik. apply (years_in e lo hi); [exact Hyears|]. specialize (Hrg k Ik). lia. }
  assert (Ynow : in_years e (wnow q)) by (apply (years_in e lo hi); [exact Hyears | lia]).
  destruct (rotate_tsdinv c e lo hi q wr keys closed I Hyears Hhi) as [Ht RI]. fold knew in Ht, RI.
  assert (CF : forall k, collision_free c (kw q k) (infix_from_ts c (kw q k) std_fmt (wnow q)) = (Ok (infix_of e knew), kw q k)).
  { intros k. unfold collision_free. rewrite tick_kw by exact Q. cbv beta iota. rewrite tick_kw by exact Q. cbv beta iota.
    rewrite (fixed_of_fixed0 c (kw q k) Hts), infix_from_ts_tsx.
    change (eoff c (kw q k)) with (eoff c q). rewrite Hoff. change (woff (kw q k)) with (woff q). change (wfs (kw q k)) with (wfs q).
    rewrite (collision_free_infix_ts c e (woff q) (wfs q) keys (wnow q) (count (wnow q) keys) Htag Ynow Yk (tsdinv_dir _ _ _ _ _ _ _ I)
               (keys_count keys Hko (wnow q))) by (pose proof (count_le_length (wnow q) keys); lia).
    reflexivity. }
  assert (En : forall j, naming_step c (kw q j) (NSTs ts None std_fmt) = (Ok (infix_of e knew), kw q j, NSTs (wnow q) None std_fmt)).
  { intros j. unfold naming_step. change (wnow (kw q j)) with (wnow q). rewrite CF. reflexivity. }
  assert (Ht' : lookup (wfs q) (name_of c q (Some (infix_of e knew))) = None) by (rewrite name_of_fixed by exact Hts; exact Ht).
  pose proof (fun j => mount_next_create_kw c q (mk_rs (NSTs ts None std_fmt) roll) wr (kname c e k0) force j _ _ Hlink Q Hp Hnec (En j) Ht') as E.
  cbn [mk_rs rs_bg rs_cleanup rs_roll cleanup_or_queue cleanup_impl] in E. cbv zeta in E.
  rewrite (name_of_fixed c q _ Hts) in E. change (as_name (c_spec c) (fixed0 c) (Some (infix_of e knew))) with (kname c e knew) in E.
  destruct n as [|n']; rewrite E; cbn [eff_fs].
  - (* killed at the creation of the next file *)
    eauto.
  - (* the rotation is completed *)
    set (q2 := set_fs q (fst (create_file (wfs q) (kname c e knew) 0%N (wnow q)))).
    assert (F3 : wfs q2 = append_ino (fst (create_file (wfs q) (kname c e knew) 0%N (wnow q))) (wino wr) (wpend wr)).
    { rewrite Hp, append_ino_nil_id. reflexivity. }
    destruct (RI q2 Q Hoff eq_refl F3) as [I2 V2].
    eexists q2, _, (reset_size_and_date q2 roll (kname c e knew)).
    split; [reflexivity|].
    split; [exact I2|]. split; [exact V2|].
    split. { destruct roll; cbn; auto. }
    split; [apply same_env_set_fs; exact Q|].
    intros m cur ->. cbn. eauto.
Qed.

(* ---- one write(2) of the unbuffered writer with a budget ---- *)
Lemma w_write_ktd q wr keys closed b n :
  TsdInv c e lo q wr keys closed ->
  exists w', w_write (kw q (S n)) wr b = (true, w', wr) /\
   ( (exists q' n', w' = kw q' (S n') /\ TsdInv c e lo q' wr keys closed /\ cur_view q' wr = cur_view q wr ++ b /\ same_env q q')
     \/ w' = kw q 0 ).
Proof.
  intros I. destruct (direct_wr_td q wr keys closed I) as [Hp Hc0]. pose proof (td_quiet _ _ _ _ _ _ _ I) as Q.
  apply (w_write_direct_kw (fun q' => TsdInv c e lo q' wr keys closed) q wr b n Q Hp Hc0 I).
  intros x q' F S. exact (tsdinv_append c e lo q q' wr wr keys closed x I F S eq_refl eq_refl (td_wr _ _ _ _ _ _ _ I)).
Qed.

(* what the process leaves when it dies in a write on an active writer: the directory of the quiet world qd *)
(* (cl, cu): the view before the write; rot: the write rotates.  The directory is the view, or - the kill between the creation
   of the next file and the write into it - the view and the new, empty file *)
Definition died_in (q : world) (w' : world) (cl : list bytes) (cu : bytes) (rot : bool) : Prop :=
  exists qd d, w' = kw qd 0 /\ same_env q qd /\ eoff c qd = e /\ dir_tsd c e lo qd d /\ flatD d = concat cl ++ cu
    /\ length (closedD d) <= S (length cl)
    /\ (filesD d = cl ++ [cu] \/ (rot = true /\ filesD d = (cl ++ [cu]) ++ [[]])).

(* ---- a write on an active writer with a budget: every kill point ---- *)
Lemma write_active_ktd q wr keys closed roll b n :
  TsdInv c e lo q wr keys closed -> (wnow q <= hi)%Z -> (N.of_nat (length keys) <= usize_max)%N ->
  roll_size_ok roll (length (cur_view q wr)) ->
  exists r w' s' rot', write_buffer (st_tsd c e (nth (length closed) keys kd) roll wr) (kw q (S n)) b = (r, w', s', rot') /\
  ( (exists q' n' wr' roll' keys' closed', w' = kw q' (S n') /\ r = Ok tt
       /\ s' = st_tsd c e (nth (length closed') keys' kd) roll' wr'
       /\ rot' = rotation_necessary q roll
       /\ TsdInv c e lo q' wr' keys' closed' /\ roll_size_ok roll' (length (cur_view q' wr')) /\ same_env q q'
       /\ (closed', cur_view q' wr') = (if rotation_necessary q roll then (closed ++ [cur_view q wr], b) else (closed, cur_view q wr ++ b))
       /\ (forall m cur, roll = RSize m cur -> exists cur', roll' = RSize m cur'))
    \/ died_in q w' closed (cur_view q wr) (rotation_necessary q roll) ).
Proof.
  intros I Hhi Hmax Hsz. destruct (direct_wr_td q wr keys closed I) as [Hp Hc0]. pose proof (td_quiet _ _ _ _ _ _ _ I) as Q.
  pose proof (td_len _ _ _ _ _ _ _ I) as Hlen.
  rewrite write_buffer_eq. unfold wb_active. cbn [st_tsd f_cfg f_inner mk_rs rs_roll]. rewrite rot_nec_kw.
  destruct (rotation_necessary q roll) eqn:Er.
  - (* the write rotates first *)
    pose proof (mount_next_ktd q wr keys closed (fst (nth (length closed) keys kd)) roll false n I Hhi Hmax) as M.
    cbn [orb] in M. specialize (M Er). cbv zeta in M.
    destruct n as [|n'].
    + destruct M as [r1 [st1 E1]]. rewrite E1.
      destruct (wb_tail_dead (st_tsd c e (nth (length closed) keys kd) roll wr) b r1 (kw q 0) st1 true (dead_kw q Q)) as [r [s' ET]].
      exists r, (kw q 0), s', true. split; [exact ET|]. right.
      exists q, (Some (keys, closed, cur_view q wr)). split; [reflexivity|]. split; [apply same_env_refl; exact Q|].
      split; [apply I|]. split; [exact (tsdinv_dird q wr keys closed I)|].
      split; [reflexivity|]. split; [cbn [closedD]; lia | left; reflexivity].
    + destruct M as [q1 [wr1 [roll1 [E1 [I1 [V1 [Z1 [S1 R1]]]]]]]]. rewrite E1. unfold wb_tail.
      set (knew := (wnow q, count (wnow q) keys)) in *.
      destruct (w_write_ktd q1 wr1 (keys ++ [knew]) (closed ++ [cur_view q wr]) b n' I1) as [w2 [Ew Out]]. rewrite Ew.
      eexists _, w2, _, true. split; [reflexivity|].
      assert (En : nth (length (closed ++ [cur_view q wr])) (keys ++ [knew]) kd = knew).
      { apply nth_snoc_last. rewrite app_length. cbn [length]. lia. }
      destruct Out as [[q2 [n2 [-> [I2 [V2 S2]]]]] | ->].
      * left. exists q2, n2, wr1, (increase_size roll1 (N.of_nat (length b))), (keys ++ [knew]), (closed ++ [cur_view q wr]).
        split; [reflexivity|]. split; [reflexivity|].
        split. { rewrite En. reflexivity. }
        split; [reflexivity|].
        split; [exact I2|]. rewrite V1 in V2. cbn [app] in V2.
        split. { rewrite V2. apply (roll_size_increase roll1 0 (length b)). exact Z1. }
        split; [eapply same_env_trans; eassumption|].
        split; [rewrite V2; reflexivity|].
        intros m cur Hr. destruct (R1 m cur Hr) as [cur' ->]. cbn. eauto.
      * right. exists q1, (Some (keys ++ [knew], closed ++ [cur_view q wr], cur_view q1 wr1)).
        split; [reflexivity|]. split; [exact S1|]. split; [apply I1|].
        split; [exact (tsdinv_dird q1 wr1 _ _ I1)|].
        split; [cbn [flatD]; rewrite V1, concat_app; cbn [concat]; rewrite !app_nil_r; reflexivity|].
        split; [cbn [closedD]; rewrite app_length; cbn [length]; lia|].
        right. split; [reflexivity|]. cbn [filesD]. rewrite V1. reflexivity.
  - (* no rotation *)
    rewrite mount_next_idle by (rewrite rot_nec_kw; exact Er). unfold wb_tail.
    destruct (w_write_ktd q wr keys closed b n I) as [w2 [Ew Out]]. rewrite Ew.
    eexists _, w2, _, false. split; [reflexivity|].
    destruct Out as [[q2 [n2 [-> [I2 [V2 S2]]]]] | ->].
    + left. exists q2, n2, wr, (increase_size roll (N.of_nat (length b))), keys, closed.
      split; [reflexivity|]. split; [reflexivity|]. split; [reflexivity|]. split; [reflexivity|].
      split; [exact I2|].
      split. { rewrite V2, app_length. apply roll_size_increase. exact Hsz. }
      split; [exact S2|]. split; [rewrite V2; reflexivity|].
      intros m cur ->. cbn. eauto.
    + right. exists q, (Some (keys, closed, cur_view q wr)). split; [reflexivity|]. split; [apply same_env_refl; exact Q|].
      split; [apply I|]. split; [exact (tsdinv_dird q wr keys closed I)|].
      split; [reflexivity|]. split; [cbn [closedD]; lia | left; reflexivity].
Qed.

(* ---- the first write: initialisation in the empty directory with a budget ---- *)
Lemma latest_ts_empty_kw q k rot : quiet q -> names (wfs q) = [] ->
  latest_timestamp_file c (kw q k) rot std_fmt = (Ok (wnow q), kw q k).
Proof.
  intros Q Hn. unfold latest_timestamp_file. destruct rot; [reflexivity|].
  unfold with_listing. rewrite tick_kw by exact Q. cbv beta iota. change (wfs (kw q k)) with (wfs q).
  rewrite related_files_empty by assumption. reflexivity.
Qed.

Lemma init_naming_empty_kw q k : quiet q -> names (wfs q) = [] -> eoff c q = e ->
  init_naming c (kw q k) NTimestampsDirect = (Ok (NSTs (wnow q) None std_fmt, tsx e (wnow q)), kw q k).
Proof.
  intros Q Hn Hoff. destruct Hcfg as [Hrot [Hts [Hlink _]]]. unfold init_naming.
  rewrite (latest_ts_empty_kw q k _ Q Hn). cbn [bind].
  unfold collision_free. rewrite tick_kw by exact Q. cbv beta iota. rewrite tick_kw by exact Q. cbv beta iota.
  change (wfs (kw q k)) with (wfs q). rewrite collision_free_infix_empty by assumption. cbn [bind].
  rewrite newest_of_next_same. rewrite infix_from_ts_tsx. change (eoff c (kw q k)) with (eoff c q). rewrite Hoff.
  destruct (c_append c); reflexivity.
Qed.

Lemma initialize_empty_ktd q n :
  quiet q -> names (wfs q) = [] -> inodes (wfs q) = [] -> eoff c q = e -> (lo <= wnow q)%Z ->
  match n with
  | 0 => exists r a, initialize c (kw q 1) = (r, set_acts (kw q 0) a)
  | S n' => exists q' wr roll,
      initialize c (kw q (S (S n'))) = (Ok (Active (Some (mk_rs (NSTs (wnow q) None std_fmt) roll)) wr (kname c e (wnow q, 0))), kw q' (S n'))
      /\ TsdInv c e lo q' wr [(wnow q, 0)] [] /\ cur_view q' wr = [] /\ roll_size_ok roll 0 /\ same_env q q'
      /\ (forall m, crit = CSize m -> roll = RSize m 0)
  end.
Proof.
  intros Q Hn Hi Hoff Hlo. pose proof Hcfg as [Hrot [Hts [Hlink _]]].
  set (k0 := (wnow q, 0)).
  assert (Lc0 : lookup (wfs q) (name_of c q (Some (tsx e (wnow q)))) = None) by (apply lookup_empty; exact Hn).
  pose proof (fun k => open_log_file_fresh_kw c q k (Some (tsx e (wnow q))) Q Hlink Lc0) as Eo.
  rewrite (name_of_fixed c q _ Hts), Hi in Eo.
  change (as_name (c_spec c) (fixed0 c) (Some (tsx e (wnow q)))) with (kname c e k0) in Eo.
  destruct n as [|n'].
  - exact (initialize_dies c _ _ _ _ _ _ _ _ _ Hrot (init_naming_empty_kw q 1 Q Hn Hoff) (Eo 1) (dead_kw q Q)).
  - specialize (Eo (S (S n'))). cbn [eff_fs length] in Eo.
    set (q2 := set_fs q (fst (create_file (wfs q) (kname c e k0) 0%N (wnow q)))) in *.
    assert (F2 : wfs q2 = {| names := [(kname c e k0, 0)]; inodes := [fresh_file (wnow q)] |}).
    { unfold q2, create_file. cbn [set_fs wfs fst snd]. rewrite Hn, Hi. reflexivity. }
    set (wr := {| wino := 0; wpend := []; wcap := c_cap c |}) in *.
    assert (Lc : lookup (wfs q2) (kname c e k0) = Some 0) by (rewrite F2; unfold lookup; cbn; rewrite beq_refl; reflexivity).
    assert (Fo : file_of (wfs q2) (kname c e k0) = Some (fresh_file (wnow q))) by (unfold file_of; rewrite Lc, F2; reflexivity).
    eexists q2, wr, _. split.
    { apply (initialize_steps c _ _ _ _ _ _ _ _ _ _ _ _ _ Hrot (init_naming_empty_kw q _ Q Hn Hoff) Eo
               (roll_new_kw q2 (S n') crit (c_append c) _ _ Q Fo) eq_refl). }
    split.
    { constructor; cbn [length nth].
      - exact Q.
      - rewrite F2. split.
        + intros a j. unfold lookup; cbn. destruct (beq (kname c e k0) a); [|discriminate]. intros E; injection E as <-. lia.
        + intros a b j. unfold lookup; cbn. destruct (beq_spec (kname c e k0) a), (beq_spec (kname c e k0) b); try discriminate. congruence.
      - rewrite F2. unfold dir_names. cbn [names List.map fst]. constructor; [intros [] | constructor].
      - exact Hoff.
      - reflexivity.
      - exact Lc.
      - rewrite F2. split; reflexivity.
      - intros i Hi'. lia.
      - intros n j. rewrite F2. unfold lookup; cbn. destruct (beq_spec (kname c e k0) n) as [<-|]; [|discriminate].
        intros _. exists 0. split; [lia | reflexivity].
      - exact (ko_snoc [] (wnow q) ko_nil (fun k (H : In k []) => match H with end)).
      - intros k [<-|[]]. unfold k0. cbn [fst q2 set_fs wnow]. lia.
      - apply wr_ok_nil.
      - reflexivity. }
    split. { unfold cur_view, content, inode. rewrite F2. reflexivity. }
    cbn [fresh_file fdata fborn length]. split; [destruct (c_append c); apply (roll_of_size_ok crit 0)|].
    split; [apply same_env_set_fs; exact Q|]. intros m ->. destruct (c_append c); reflexivity.
Qed.

(* ---- a dead outcome as the world of a dead process ---- *)
Lemma died_in_dead q w' cl cu rot : died_in q w' cl cu rot ->
  exists d, DeadTd c e (woff q) lo (S (length cl)) (wnow q) w' d /\ flatD d = concat cl ++ cu
    /\ (filesD d = cl ++ [cu] \/ (rot = true /\ filesD d = (cl ++ [cu]) ++ [[]])).
Proof.
  intros [qd [d [-> [S [Ho [D [F [L Sh]]]]]]]]. exists d. split; [|split; [exact F | exact Sh]].
  pose proof (dead_of_quiet c e lo qd d _ (proj1 S) Ho D L) as X. destruct S as [_ [N [O _]]]. rewrite N, O in X. exact X.
Qed.

(* ---- a write, from either kind of state ---- *)
Lemma write_rel_ktd n x a b q m :
  s_w x = kw q (S m) -> RelTd c crit e lo n (with_w x q) a -> (wnow q <= hi)%Z -> (N.of_nat (S n) <= usize_max)%N ->
  exists s r w' s' rot, s_flw x = Some s /\ f_poisoned s = false /\
    write_buffer s (s_w x) b = (r, w', s', rot) /\
    ( (r = Ok tt /\ KRelTd c crit e (woff q) lo (S n) (wnow q) {| s_flw := Some s'; s_w := w'; s_tl := []; s_dead := s_dead x |}
                           (a_step a (OWrite b) rot)
         /\ (forall k, crit = CSize k -> rot = (k <? N.of_nat (length (cur_of a)))%N))
      \/ (exists d, DeadTd c e (woff q) lo (S n) (wnow q) w' d /\ flatD d = flat a /\ (forall k, crit = CSize k -> near d a)) ).
Proof.
  intros Ew [Ht [Ha R]] Hhi Hmax. cbn [with_w s_tl s_w s_flw] in Ht, Ha, R. rewrite Ew. destruct a as [[cl cu]|].
  - destruct R as [keys [wr [roll [Es [I [V [Hn [Z RS]]]]]]]]. rewrite <- V in Z.
    assert (Hk : (N.of_nat (length keys) <= usize_max)%N) by (rewrite (td_len _ _ _ _ _ _ _ I); lia).
    destruct (write_active_ktd q wr keys cl roll b m I Hhi Hk Z) as [r [w' [s' [rot' [E Out]]]]].
    exists (st_tsd c e (nth (length cl) keys kd) roll wr), r, w', s', rot'. split; [exact Es|]. split; [reflexivity|]. split; [exact E|].
    destruct Out as [[q' [n' [wr' [roll' [keys' [cl' [-> [-> [-> [-> [I' [Z' [S' [V' R']]]]]]]]]]]]]] | D].
    + left. split; [reflexivity|]. split.
      { exists q', n'. split; [reflexivity|].
        split; [apply S'|]. split; [exact (same_env_now _ _ S')|].
        split; [reflexivity|]. split; [cbn [with_w s_w]; exact (same_env_acts _ _ S' Ha)|].
        cbn [a_step]. rewrite V in V'.
        destruct (rotation_necessary q roll); injection V' as -> V''; (exists keys', wr', roll'; cbn [with_w s_flw s_w];
          split; [reflexivity|]; split; [exact I'|]; split; [exact V''|]; split; [rewrite ?app_length; cbn [length]; lia|];
          split; [rewrite <- V''; exact Z'|];
          intros k Hm; destruct (RS k Hm) as [j ->]; destruct (R' k j eq_refl) as [j' ->]; eauto). }
      { intros k Hm. destruct (RS k Hm) as [j ->]. cbn in Z. subst j. rewrite V. reflexivity. }
    + right. destruct (died_in_dead q w' _ _ _ D) as [d [Dd [Fl Sh]]]. exists d.
      split; [apply (deadtd_mono c e (woff q) lo (S (length cl))); [lia | exact Dd]|]. split; [rewrite Fl, V; reflexivity|].
      intros k _. unfold near. cbn [files_of]. rewrite <- V. destruct Sh as [Sh|[_ Sh]]; [left | right]; exact Sh.
  - destruct R as [Es [Q [Hnm [Hi [Hoff Hlo]]]]].
    pose proof (initialize_empty_ktd q m Q Hnm Hi Hoff Hlo) as IE. destruct m as [|m'].
    + destruct IE as [r0 [a0 Ei]].
      destruct (wb_initial_dead_e (new_flw c) (kw q 1) b r0 _ eq_refl Ei (dead_kw q Q)) as [r [w' [s' [rot [E F0]]]]].
      pose proof (frozen_e_trans _ _ _ (frozen_e_set_acts (kw q 0) a0 (dead_kw q Q)) F0) as F.
      exists (new_flw c), r, w', s', rot. split; [exact Es|]. split; [reflexivity|]. split; [exact E|].
      right. exists None. split; [|split; [reflexivity | intros k _; left; reflexivity]].
      assert (D0 : DeadTd c e (woff q) lo (S n) (wnow q) (kw q 0) None).
      { apply dead_of_quiet; [exact Q | exact Hoff | cbn [dir_tsd]; auto | cbn [closedD length]; lia]. }
      replace (wnow q) with (wnow q + 0)%Z by lia.
      apply (deadtd_after c e (woff q) lo (S n) (wnow q) (kw q 0) w' None 0 D0); [apply frozen_e_after; exact F | lia].
    + destruct IE as [q1 [wr [roll [Ei [I [V [Z [S1 RS]]]]]]]].
      assert (Z0 : roll_size_ok roll (length (cur_view q1 wr))) by (rewrite V; exact Z).
      assert (Hhi1 : (wnow q1 <= hi)%Z) by (rewrite (same_env_now _ _ S1); exact Hhi).
      destruct (write_active_ktd q1 wr [(wnow q, 0)] [] roll b m' I Hhi1 ltac:(cbn [length]; lia) Z0) as [r [w' [s' [rot' [E Out]]]]].
      exists (new_flw c), r, w', s', rot'. split; [exact Es|]. split; [reflexivity|].
      split. { rewrite (write_buffer_init c (kw q (S (S m'))) b _ _ _ (kw q1 (S m')) Ei). exact E. }
      destruct Out as [[q' [n2 [wr' [roll' [keys' [cl' [-> [-> [-> [-> [I' [Z' [S' [V' R']]]]]]]]]]]]]] | D].
      * left. split; [reflexivity|]. split.
        { exists q', n2. split; [reflexivity|].
          pose proof (same_env_trans _ _ _ S1 S') as S2.
          split; [apply S2|]. split; [exact (same_env_now _ _ S2)|].
          split; [reflexivity|]. split; [cbn [with_w s_w]; exact (same_env_acts _ _ S2 Ha)|].
          cbn [a_step]. rewrite V in V'. cbn [app] in V'.
          destruct (rotation_necessary q1 roll); injection V' as -> V''; (exists keys', wr', roll'; cbn [with_w s_flw s_w];
            split; [reflexivity|]; split; [exact I'|]; split; [exact V''|]; split; [cbn [app length]; lia|];
            split; [rewrite <- V''; exact Z'|]).
          -- intros k Hm. rewrite (RS k Hm) in R'. destruct (R' k 0%N eq_refl) as [j' ->]; eauto.
          -- intros k Hm. rewrite (RS k Hm) in R'. destruct (R' k 0%N eq_refl) as [j' ->]; eauto. }
        { intros k Hm. rewrite (RS k Hm). reflexivity. }
      * right. destruct (died_in_dead q1 w' _ _ _ D) as [d [Dd [Fl Sh]]]. exists d.
        destruct S1 as [_ [N1 [O1 _]]]. rewrite N1, O1 in Dd.
        split; [apply (deadtd_mono c e (woff q) lo 1); [lia | exact Dd]|]. split; [rewrite Fl, V; reflexivity|].
        (* a size criterion does not rotate the file that has just been created: the one file is there, empty *)
        intros k Hm. right. cbn [files_of app]. rewrite V in Sh. destruct Sh as [Sh|[Hr _]]; [exact Sh|].
        rewrite (RS k Hm) in Hr. cbn [rotation_necessary] in Hr. unfold size_rotation_necessary in Hr. apply N.ltb_lt in Hr. lia.
Qed.

Lemma krel_flw_td n t x a : KRelTd c crit e off lo n t x a -> exists s, s_flw x = Some s /\ f_cfg s = c.
Proof.
  intros [q [m [_ [_ [_ [_ [_ R]]]]]]]. cbn [with_w s_flw] in R.
  destruct a as [[cl cu]|]; [destruct R as [keys [wr [roll [Es _]]]] | destruct R as [Es _]]; rewrite Es; eexists; split; reflexivity.
Qed.

Lemma step_sync_ktd n t x a o : KRelTd c crit e off lo n t x a -> step x o = sync_step x o.
Proof.
  intros K. destruct (krel_flw_td n t x a K) as [s [Es Ec]].
  exact (step_sync_tsd c crit x s o Hcfg Es Ec).
Qed.

(* ---- one basic operation of a process with a budget: it either completes (and is acknowledged), or the process
        dies in it, and then the directory holds exactly what was acknowledged before ---- *)
Lemma kstep_td n t x a o : KRelTd c crit e off lo n t x a -> basic_op o -> tick_ok o ->
  (t <= hi)%Z -> (N.of_nat (S n) <= usize_max)%N ->
  let '(x', ob) := step x o in
  (alive (s_w x') = true /\ KRelTd c crit e off lo (S n) (t + dt_of o) x' (a_step a o (rot_of ob))
     /\ (forall b k, (o = OWrite b \/ o = OPlain b) -> crit = CSize k -> rot_of ob = (k <? N.of_nat (length (cur_of a)))%N))
  \/ (alive (s_w x') = false /\ exists d, DeadTd c e off lo (S n) (t + dt_of o) (s_w x') d /\ flatD d = flat a
        /\ (forall k, crit = CSize k -> near d a)).
Proof.
  intros K Hb Htk Hhi Hmax. rewrite (step_sync_ktd n t x a o K). destruct K as [q [m [Ew [Ho [Hn R]]]]].
  rewrite <- Hn in Hhi.
  destruct o; try contradiction; cbn [sync_step dt_of]; rewrite ?Z.add_0_r.
  - (* OWrite *)
    destruct (write_rel_ktd n x a b q m Ew R Hhi Hmax) as [s [r [w' [s' [rot [Es [Hp [E Out]]]]]]]]. rewrite Ho, Hn in Out.
    rewrite Es, Hp. pose proof (proj1 R) as Ht. cbn [with_w s_tl] in Ht. rewrite Ht. cbn [app]. rewrite E. cbn [rot_of].
    destruct Out as [[-> [K' Fg]] | [d [D [Fl Nr]]]].
    + left. split; [|split; [exact K' | intros b0 k0 _ Hm; exact (Fg k0 Hm)]].
      destruct K' as [q' [n' [E' _]]]. cbn [s_w] in E' |- *. rewrite E'. reflexivity.
    + right. cbn [s_w].
      rewrite report_write_dead by apply D. split; [apply dead_not_alive; apply D|]. exists d. split; [exact D|]. split; [exact Fl | exact Nr].
  - (* OPlain *)
    destruct (write_rel_ktd n x a b q m Ew R Hhi Hmax) as [s [r [w' [s' [rot [Es [Hp [E Out]]]]]]]]. rewrite Ho, Hn in Out.
    rewrite Es, Hp, E. cbn [rot_of]. pose proof (proj1 R) as Ht. cbn [with_w s_tl] in Ht. rewrite Ht.
    destruct Out as [[-> [K' Fg]] | [d [D [Fl Nr]]]].
    + left. split; [|split; [exact K' | intros b0 k0 _ Hm; exact (Fg k0 Hm)]].
      destruct K' as [q' [n' [E' _]]]. cbn [s_w] in E' |- *. rewrite E'. reflexivity.
    + right. cbn [s_w]. split; [apply dead_not_alive; apply D|]. exists d. split; [exact D|]. split; [exact Fl | exact Nr].
  - (* OFlush *)
    destruct R as [Ht [Ha R]]. cbn [with_w s_tl s_w s_flw] in Ht, Ha, R. destruct a as [[cl cu]|].
    + destruct R as [keys [wr [roll [Es [I [V [Hl [Z RS]]]]]]]]. rewrite Es. cbn [st_tsd f_poisoned].
      destruct (direct_wr_td q wr keys cl I) as [Pw _].
      unfold flush_state, st_tsd. cbn [f_inner]. rewrite w_flush_nop by exact Pw. rewrite (writer_eta wr Pw).
      cbn [rot_of a_step s_w]. left. split; [rewrite Ew; reflexivity|]. split; [|intros b0 k0 [H0|H0]; discriminate].
      exists q, m. split; [exact Ew|]. split; [exact Ho|]. split; [exact Hn|]. split; [exact Ht|]. split; [exact Ha|].
      exists keys, wr, roll. cbn [with_w s_flw s_w]. split; [reflexivity|]. split; [exact I|]. split; [exact V|].
      split; [lia|]. split; assumption.
    + destruct R as [Es R]. rewrite Es. cbn [new_flw f_poisoned flush_state f_inner rot_of a_step s_w].
      left. split; [rewrite Ew; reflexivity|]. split; [|intros b0 k0 [H0|H0]; discriminate]. exists q, m. split; [exact Ew|]. split; [exact Ho|]. split; [exact Hn|].
      split; [exact Ht|]. split; [exact Ha|]. split; [reflexivity | exact R].
  - (* OTrigger *)
    destruct R as [Ht [Ha R]]. cbn [with_w s_tl s_w s_flw] in Ht, Ha, R. destruct a as [[cl cu]|].
    + destruct R as [keys [wr [roll [Es [I [V [Hl [Z RS]]]]]]]]. rewrite Es. cbn [st_tsd f_poisoned f_cfg f_inner]. rewrite Ew.
      pose proof (td_quiet _ _ _ _ _ _ _ I) as Q. pose proof (td_len _ _ _ _ _ _ _ I) as Hlen.
      assert (Hk : (N.of_nat (length keys) <= usize_max)%N) by lia.
      pose proof (mount_next_ktd q wr keys cl (fst (nth (length cl) keys kd)) roll true m I Hhi Hk eq_refl) as M. cbv zeta in M.
      destruct m as [|m'].
      * destruct M as [r1 [st1 E1]]. rewrite E1. right. cbn [s_w]. split; [reflexivity|].
        exists (Some (keys, cl, cur_view q wr)).
        split; [|split; [rewrite V; reflexivity | intros k _; left; cbn [filesD files_of]; rewrite V; reflexivity]].
        rewrite <- Ho, <- Hn. apply dead_of_quiet; [exact Q | apply I | exact (tsdinv_dird q wr keys cl I) | cbn [closedD]; lia].
      * destruct M as [q' [wr' [roll' [E1 [I' [V' [Z' [S' R']]]]]]]]. rewrite E1. left.
        cbn [rot_of a_step code_of with_inner f_cfg f_poisoned s_w]. split; [reflexivity|]. split; [|intros b0 k0 [H0|H0]; discriminate].
        exists q', m'. split; [reflexivity|]. split; [rewrite <- Ho; apply S'|]. split; [rewrite <- Hn; exact (same_env_now _ _ S')|].
        split; [exact Ht|]. split; [cbn [with_w s_w]; exact (same_env_acts _ _ S' Ha)|].
        rewrite V in *. exists (keys ++ [(wnow q, count (wnow q) keys)]), wr', roll'. cbn [with_w s_flw s_w].
        split. { rewrite nth_snoc_last by (rewrite app_length; cbn [length]; lia). reflexivity. }
        split; [exact I'|]. split; [exact V'|]. split; [rewrite app_length; cbn [length]; lia|]. split; [exact Z'|].
        intros k Hm. destruct (RS k Hm) as [j ->]. destruct (R' k j eq_refl) as [j' ->]. eauto.
    + destruct R as [Es R]. rewrite Es. cbn [new_flw f_poisoned f_cfg f_inner mount_next with_inner rot_of a_step code_of s_w].
      left. split; [rewrite Ew; reflexivity|]. split; [|intros b0 k0 [H0|H0]; discriminate]. exists q, m. split; [exact Ew|]. split; [exact Ho|]. split; [exact Hn|].
      split; [exact Ht|]. split; [exact Ha|]. split; [reflexivity | exact R].
  - (* OTick *)
    cbn [rot_of a_step s_w tick_ok] in *. left. rewrite Ew. split; [reflexivity|]. split; [|intros b0 k0 [H0|H0]; discriminate].
    exists (set_now q (wnow q + dt)%Z), m. split; [reflexivity|]. split; [exact Ho|]. split; [cbn [set_now wnow]; lia|].
    destruct R as [Ht [Ha R]]. cbn [with_w s_tl s_w s_flw] in Ht, Ha, R.
    split; [exact Ht|]. split; [exact Ha|]. destruct a as [[cl cu]|].
    + destruct R as [keys [wr [roll [Es [I [V [Hl ZR]]]]]]]. exists keys, wr, roll. cbn [with_w s_flw s_w].
      split; [exact Es|]. split; [apply tsdinv_tick; assumption|]. split; [exact V|]. split; [lia | exact ZR].
    + cbn [with_w s_flw s_w]. destruct R as [Es [Q [Hnm [Hi [Hoff Hlo]]]]].
      split; [exact Es|]. split; [apply quiet_set_now; exact Q|]. split; [exact Hnm|]. split; [exact Hi|].
      split; [exact Hoff | cbn [set_now wnow]; lia].
  - (* OSnap *)
    cbn [rot_of a_step]. left. split; [rewrite Ew; reflexivity|]. split; [|intros b0 k0 [H0|H0]; discriminate]. exists q, m. split; [exact Ew|]. split; [exact Ho|]. split; [exact Hn|].
    apply RelTd_mono. exact R.
Qed.

(* ---- the operations after the counter has been armed ---- *)
Lemma krun_td : forall ops n t x a, KRelTd c crit e off lo n t x a -> Forall basic_op ops -> Forall tick_ok ops ->
  (t + elapsed ops <= hi)%Z -> (N.of_nat (n + length ops) <= usize_max)%N ->
  (exists a', KRelTd c crit e off lo (n + length ops) (t + elapsed ops) (fst (run x ops)) a' /\ flat a' = flat a ++ acked x ops
       /\ acked x ops = written ops /\ (forall k, crit = CSize k -> a' = s_run k a ops))
  \/ (exists d, DeadTd c e off lo (n + length ops) (t + elapsed ops) (s_w (fst (run x ops))) d /\ flatD d = flat a ++ acked x ops
       /\ (forall k, crit = CSize k -> exists j, acked x ops = written (firstn j ops) /\ near d (s_run k a (firstn j ops)))).
Proof.
  induction ops as [|o r IH]; intros n t x a K Hb Htk Hhi Hmax.
  - left. exists a. cbn [run fst acked length elapsed]. rewrite app_nil_r, Nat.add_0_r, Z.add_0_r.
    split; [exact K|]. split; [reflexivity|]. split; [reflexivity | intros k _; reflexivity].
  - inversion Hb as [|o' r' Ho Hr]; subst. inversion Htk as [|o' r' Hto Htr]; subst. rewrite fst_run_cons. cbn [acked length elapsed] in *.
    pose proof (elapsed_nonneg r Htr) as Er.
    assert (Hdt : (0 <= dt_of o)%Z) by (destruct o; cbn [dt_of tick_ok] in *; lia).
    pose proof (kstep_td n t x a o K Ho Hto ltac:(lia) ltac:(lia)) as St. destruct (step x o) as [x1 ob] eqn:Est. cbn [fst].
    replace (n + S (length r)) with (S n + length r) by lia.
    replace (t + (dt_of o + elapsed r))%Z with (t + dt_of o + elapsed r)%Z by lia.
    destruct St as [[Al [K1 Fg]] | [Al [d [D [Fl Nr]]]]]; rewrite Al.
    + assert (Erot : forall k, crit = CSize k -> a_step a o (rot_of ob) = a_step a o (k <? N.of_nat (length (cur_of a)))%N).
      { intros k Hm. destruct o; try reflexivity.
        - rewrite (Fg b k (or_introl eq_refl) Hm). reflexivity.
        - rewrite (Fg b k (or_intror eq_refl) Hm). reflexivity. }
      destruct (IH (S n) (t + dt_of o)%Z x1 _ K1 Hr Htr ltac:(lia) ltac:(lia)) as [[a' [K' [F' [Ak Sr]]]] | [d [D [F' Sh]]]].
      * left. exists a'. split; [exact K'|]. split; [rewrite F', a_step_flat by exact Ho; rewrite app_assoc; reflexivity|].
        split; [rewrite Ak, (written_cons o r); reflexivity|].
        intros k Hm. cbn [s_run]. rewrite <- (Erot k Hm). exact (Sr k Hm).
      * right. exists d. split; [exact D|]. split; [rewrite F', a_step_flat by exact Ho; rewrite app_assoc; reflexivity|].
        intros k Hm. destruct (Sh k Hm) as [j [Aj Nj]]. exists (S j). cbn [firstn s_run].
        split; [rewrite Aj, (written_cons o (firstn j r)); reflexivity|]. rewrite <- (Erot k Hm). exact Nj.
    + cbn [app]. rewrite (acked_dead r x1 (proj1 D) Hr), app_nil_r.
      right. exists d. split; [|split; [exact Fl|]].
      * apply (deadtd_mono c e off lo (S n)); [lia|].
        exact (deadtd_after c e off lo (S n) _ _ _ d (elapsed r) D (dead_run_e r x1 (proj1 D) Hr) Er).
      * intros k Hm. exists 0. split; [reflexivity | exact (Nr k Hm)].
Qed.

Lemma crash_alive_td n t x a : KRelTd c crit e off lo n t x a ->
  exists d, IdleTd c e off lo n (fst (step x OCrash)) d /\ flatD d = flat a /\ filesD d = files_of a
    /\ wnow (s_w (fst (step x OCrash))) = t.
Proof.
  intros [q [m [Ew [Ho [Hn [Ht [Ha R]]]]]]]. rewrite step_crash. cbn [sync_step fst]. cbn [with_w s_tl s_w s_flw] in Ht, Ha, R.
  rewrite Ew. unfold IdleTd, envTd. cbn [s_tl s_w s_flw].
  change (set_acts (set_kill (kw q (S m)) None) 0) with (calm (kw q (S m))).
  destruct a as [[cl cu]|].
  - destruct R as [keys [wr [roll [Es [I [V [Hl _]]]]]]]. pose proof (td_quiet _ _ _ _ _ _ _ I) as Q.
    exists (Some (keys, cl, cu)). split; [|split; [reflexivity | split; [reflexivity | exact Hn]]].
    split. { split; [reflexivity|]. split; [reflexivity|]. split; [apply quiet_calm; apply Q|]. split; [exact (td_off _ _ _ _ _ _ _ I) | exact Ho]. }
    split; [reflexivity|]. split; [|exact Hl]. rewrite <- V.
    apply (dir_tsd_later c e lo q); [exact (tsdinv_dird q wr keys cl I) | reflexivity | apply quiet_calm; apply Q | apply Z.le_refl
                                     | exact (td_off _ _ _ _ _ _ _ I)].
  - destruct R as [Es [Q [Hnm [Hi [Hoff Hlo]]]]].
    exists None. split; [|split; [reflexivity | split; [reflexivity | exact Hn]]].
    split. { split; [reflexivity|]. split; [reflexivity|]. split; [apply quiet_calm; apply Q|]. split; [exact Hoff | exact Ho]. }
    split; [reflexivity|]. split; [|cbn [closedD length]; lia]. cbn [dir_tsd]. auto.
Qed.

Lemma crash_dead_td n t x d : DeadTd c e off lo n t (s_w x) d ->
  IdleTd c e off lo n (fst (step x OCrash)) d /\ wnow (s_w (fst (step x OCrash))) = t.
Proof.
  intros [Dw [Ho [Hn [He [D L]]]]]. rewrite step_crash. cbn [sync_step fst]. unfold IdleTd, envTd. cbn [s_tl s_w s_flw].
  change (set_acts (set_kill (s_w x) None) 0) with (calm (s_w x)).
  split; [|exact Hn].
  split. { split; [reflexivity|]. split; [reflexivity|]. split; [apply quiet_calm; apply Dw|]. split; [exact He | exact Ho]. }
  split; [reflexivity|]. split; [exact D | exact L].
Qed.

Lemma arm_krel_td n x a k : RelTd c crit e lo n x a -> woff (s_w x) = off ->
  KRelTd c crit e off lo n (wnow (s_w x)) (fst (step x (OSetKill k))) a.
Proof.
  intros R Ho. rewrite (step_sync_rel_tsd c crit e lo n x a _ Hcfg R). cbn [sync_step fst].
  exists (s_w x), k. split; [reflexivity|]. split; [exact Ho|]. split; [reflexivity|].
  unfold with_w. cbn [s_flw s_tl s_dead]. destruct x; exact R.
Qed.

(* the acknowledged bytes are the bytes written by a prefix of the operations: the process dies once *)
Lemma acked_prefix_ktd : forall ops n t x a, KRelTd c crit e off lo n t x a -> Forall basic_op ops -> Forall tick_ok ops ->
  (t + elapsed ops <= hi)%Z -> (N.of_nat (n + length ops) <= usize_max)%N ->
  exists j, acked x ops = written (firstn j ops).
Proof.
  induction ops as [|o r IH]; intros n t x a K Hb Htk Hhi Hmax; [exists 0; reflexivity|].
  inversion Hb as [|o' r' Ho Hr]; subst. inversion Htk as [|o' r' Hto Htr]; subst. cbn [acked length elapsed] in *.
  pose proof (elapsed_nonneg r Htr) as Er.
  assert (Hdt : (0 <= dt_of o)%Z) by (destruct o; cbn [dt_of tick_ok] in *; lia).
  pose proof (kstep_td n t x a o K Ho Hto ltac:(lia) ltac:(lia)) as St. destruct (step x o) as [x1 ob] eqn:Est. cbn [fst].
  destruct St as [[Al [K1 _]] | [Al [d [D _]]]]; rewrite Al.
  - destruct (IH (S n) (t + dt_of o)%Z x1 _ K1 Hr Htr ltac:(lia) ltac:(lia)) as [j E]. exists (S j). cbn [firstn].
    rewrite E, (written_cons o (firstn j r)). reflexivity.
  - exists 0. rewrite (acked_dead r x1 (proj1 D) Hr). reflexivity.
Qed.

End DirectTd.

(* ------------------------------------------------------------------ the whole history of the killed process *)
Lemma kill_history_td c crit t0 off ops1 k ops2 :
  tsdcfg c crit -> c_cap c = None -> tag_ok c ->
  Forall basic_op ops1 -> Forall basic_op ops2 -> Forall tick_ok ops1 -> Forall tick_ok ops2 ->
  (0 <= t0 + ts_e c off)%Z -> (t0 + elapsed ops1 + elapsed ops2 + ts_e c off < sec_max)%Z ->
  (N.of_nat (length ops1 + length ops2) <= usize_max)%N ->
  let x1 := fst (run (sys0 t0 off) (OStart c :: ops1 ++ [OSetKill k])) in
  let xe := fst (run (sys0 t0 off) (OStart c :: ops1 ++ [OSetKill k] ++ ops2 ++ [OCrash])) in
  (exists d, IdleTd c (ts_e c off) off t0 (length ops1 + length ops2) xe d
     /\ flatD d = written ops1 ++ acked x1 ops2
     /\ wnow (s_w xe) = (t0 + elapsed ops1 + elapsed ops2)%Z
     /\ (forall m, crit = CSize m ->
           exists j, acked x1 ops2 = written (firstn j ops2) /\ near d (s_run m None (ops1 ++ firstn j ops2))))
  /\ exists j, acked x1 ops2 = written (firstn j ops2).
Proof.
  intros Hcfg Hcap T Hb1 Hb2 Htk1 Htk2 Hlo Hhi Hmax x1 xe. unfold x1, xe. clear x1 xe.
  set (e := ts_e c off) in *. set (hi := (t0 + elapsed ops1 + elapsed ops2)%Z).
  assert (Y : years_ok e t0 hi) by (split; assumption).
  pose proof (elapsed_nonneg ops1 Htk1) as E1. pose proof (elapsed_nonneg ops2 Htk2) as E2.
  rewrite !fst_run_cons, !fst_run_app, !fst_run_cons. cbn [run fst].
  pose proof (start_rel_tsd c crit t0 off) as R0. pose proof (start_relTdT c crit t0 off) as RT0.
  pose proof (start_clock c t0 off) as [N0 O0]. fold e in R0, RT0.
  set (x0 := fst (step (sys0 t0 off) (OStart c))) in *.
  pose proof (run_rel_tsd c crit e t0 hi Hcfg T Y ops1 x0 None 0 R0 Hb1 Htk1 ltac:(unfold hi; lia) ltac:(lia)) as [R1 [W1 Z1]].
  pose proof (run_relTdT c crit e t0 hi Hcfg T Y ops1 x0 None 0 RT0 Hb1 Htk1 ltac:(unfold hi; lia) ltac:(lia)) as RT1.
  cbv zeta in RT1. destruct RT1 as [_ [O1 _]]. rewrite O0 in O1. rewrite N0 in W1.
  pose proof (run_length ops1 x0) as L1.
  pose proof (a_run_flat ops1 None (snd (run x0 ops1)) Hb1 L1) as F1. cbn [flat app] in F1.
  set (x1 := fst (run x0 ops1)) in *. set (a1 := a_run None ops1 (snd (run x0 ops1))) in *.
  pose proof (arm_krel_td c crit e off t0 Hcfg (0 + length ops1) x1 a1 k R1 O1) as K2. rewrite W1 in K2.
  set (x2 := fst (step x1 (OSetKill k))) in *.
  split.
  - destruct (krun_td c crit e off t0 hi Hcfg Hcap T Y ops2 _ _ x2 a1 K2 Hb2 Htk2 ltac:(unfold hi; lia) ltac:(lia))
      as [[a' [K' [F' [Ak Sr]]]] | [d [D [F' Sh]]]].
    + destruct (crash_alive_td c crit e off t0 Hcap _ _ _ a' K') as [d [Id [Fd [Fi Wd]]]]. exists d.
      split; [exact Id|]. split; [rewrite Fd, F', F1; reflexivity|]. split; [exact Wd|].
      intros m Hm. exists (length ops2). rewrite firstn_all. split; [exact Ak|]. left.
      rewrite Fi, (Sr m Hm), s_run_app. rewrite (proj1 (Z1 m Hm)). reflexivity.
    + destruct (crash_dead_td c e off t0 _ _ _ d D) as [Id Wd]. exists d.
      split; [exact Id|]. split; [rewrite F', F1; reflexivity|]. split; [exact Wd|].
      intros m Hm. destruct (Sh m Hm) as [j [Aj Nj]]. exists j. split; [exact Aj|].
      rewrite s_run_app. rewrite (proj1 (Z1 m Hm)) in Nj. exact Nj.
  - exact (acked_prefix_ktd c crit e off t0 hi Hcfg Hcap T Y ops2 _ _ x2 a1 K2 Hb2 Htk2 ltac:(unfold hi; lia) ltac:(lia)).
Qed.

(* After any history  OStart c :: ops1 ++ [OSetKill k] ++ ops2 ++ [OCrash]  from the empty directory (TimestampsDirect naming,
   no cleanup, direct mode; ops1, ops2 any basic operations, the clock never goes back; any kill point k) the directory consists
   exactly of the plain files named by keys (second of the start, position within the second; files = [] stands for the empty
   directory, tsd_view_nil), and they hold, in the order of their creation, exactly the acknowledged records: the payloads
   written by ops1 and those written by the operations of ops2 after which the process was still alive.  Nothing is lost, nothing
   else is there (in the model a write effect is atomic: the record whose write was killed is not in the file).
   keys_ok keys: the directory is one that a writer that was stopped could have left (pairwise distinct names, increasing in the
   order of creation) - a kill does not produce a new kind of directory.  The newest file may be EMPTY: a kill between the
   creation of a file (first write, rotation in a write) and the first write into it leaves the new, empty file; when the kill hit
   the creation itself, the file is not there (tsdk_kill_points_dirs: kill points 0/1 for the
   trigger, 3/4 for the rotating write; tsdk_kill_in_first_write). *)
Theorem timestampsdirect_kill_keeps_acked c crit t0 off ops1 k ops2 :
  tsdcfg c crit -> tag_ok c -> c_cap c = None ->
  Forall basic_op ops1 -> Forall basic_op ops2 -> Forall tick_ok ops1 -> Forall tick_ok ops2 ->
  let e := ts_e c off in
  (0 <= t0 + e)%Z -> (t0 + elapsed ops1 + elapsed ops2 + e < sec_max)%Z ->
  (N.of_nat (length ops1 + length ops2) <= usize_max)%N ->
  let x1 := fst (run (sys0 t0 off) (OStart c :: ops1 ++ [OSetKill k])) in
  let xe := fst (run (sys0 t0 off) (OStart c :: ops1 ++ [OSetKill k] ++ ops2 ++ [OCrash])) in
  exists keys files,
    tsd_view c e (wfs (s_w xe)) keys files
    /\ keys_ok keys
    /\ (forall key, In key keys -> (t0 <= fst key <= t0 + elapsed ops1 + elapsed ops2)%Z)
    /\ concat files = written ops1 ++ acked x1 ops2.
Proof.
  intros Hcfg T Hcap Hb1 Hb2 Htk1 Htk2 e Hlo Hhi Hmax x1 xe.
  destruct (kill_history_td c crit t0 off ops1 k ops2 Hcfg Hcap T Hb1 Hb2 Htk1 Htk2 Hlo Hhi Hmax) as [[d [Id [F [W _]]]] _].
  fold xe in Id, W. fold x1 in F. fold e in Id.
  destruct (idleTd_view (c_spec c) c e off t0 _ xe d eq_refl Id) as [V [C [K Rg]]].
  exists (keysD d), (filesD d). split; [exact (V c eq_refl)|]. split; [exact K|].
  split; [intros key Ik; specialize (Rg key Ik); rewrite W in Rg; exact Rg|]. rewrite C. exact F.
Qed.
Print Assumptions timestampsdirect_kill_keeps_acked.

(* what is acknowledged is what a prefix of ops2 wrote *)
Theorem acked_is_prefix_tsd c crit t0 off ops1 k ops2 :
  tsdcfg c crit -> tag_ok c -> c_cap c = None ->
  Forall basic_op ops1 -> Forall basic_op ops2 -> Forall tick_ok ops1 -> Forall tick_ok ops2 ->
  (0 <= t0 + ts_e c off)%Z -> (t0 + elapsed ops1 + elapsed ops2 + ts_e c off < sec_max)%Z ->
  (N.of_nat (length ops1 + length ops2) <= usize_max)%N ->
  exists j, acked (fst (run (sys0 t0 off) (OStart c :: ops1 ++ [OSetKill k]))) ops2 = written (firstn j ops2).
Proof.
  intros Hcfg T Hcap Hb1 Hb2 Htk1 Htk2 Hlo Hhi Hmax.
  exact (proj2 (kill_history_td c crit t0 off ops1 k ops2 Hcfg Hcap T Hb1 Hb2 Htk1 Htk2 Hlo Hhi Hmax)).
Qed.
Print Assumptions acked_is_prefix_tsd.

(* The SHAPE of what a kill leaves, for a size criterion.  j operations of ops2 were acknowledged.  The contents of the files, in
   the order of their creation, are the files of the size run (NumRun.s_run, the greedy partition of C08) of the acknowledged
   history ops1 ++ firstn j ops2 - or these files and ONE MORE, EMPTY, newest file: the kill between the creation of a file (in the
   first write, or in a write that rotates) and the write into it.  A kill at the creation itself, at a write that does not
   rotate, or in a trigger (whose only effect is the creation) leaves the files of the acknowledged history and nothing else. *)
Theorem timestampsdirect_kill_shape c m t0 off ops1 k ops2 :
  tsdcfg c (CSize m) -> tag_ok c -> c_cap c = None ->
  Forall basic_op ops1 -> Forall basic_op ops2 -> Forall tick_ok ops1 -> Forall tick_ok ops2 ->
  let e := ts_e c off in
  (0 <= t0 + e)%Z -> (t0 + elapsed ops1 + elapsed ops2 + e < sec_max)%Z ->
  (N.of_nat (length ops1 + length ops2) <= usize_max)%N ->
  let x1 := fst (run (sys0 t0 off) (OStart c :: ops1 ++ [OSetKill k])) in
  let xe := fst (run (sys0 t0 off) (OStart c :: ops1 ++ [OSetKill k] ++ ops2 ++ [OCrash])) in
  exists j keys files,
    acked x1 ops2 = written (firstn j ops2)
    /\ tsd_view c e (wfs (s_w xe)) keys files /\ keys_ok keys
    /\ (files = files_of (s_run m None (ops1 ++ firstn j ops2))
        \/ files = files_of (s_run m None (ops1 ++ firstn j ops2)) ++ [[]]).
Proof.
  intros Hcfg T Hcap Hb1 Hb2 Htk1 Htk2 e Hlo Hhi Hmax x1 xe.
  destruct (kill_history_td c (CSize m) t0 off ops1 k ops2 Hcfg Hcap T Hb1 Hb2 Htk1 Htk2 Hlo Hhi Hmax) as [[d [Id [_ [_ Sh]]]] _].
  fold xe in Id. fold x1 in Sh. fold e in Id.
  destruct (Sh m eq_refl) as [j [Aj Nj]].
  destruct (idleTd_view (c_spec c) c e off t0 _ xe d eq_refl Id) as [V [_ [K _]]].
  exists j, (keysD d), (filesD d). split; [exact Aj|]. split; [exact (V c eq_refl)|]. split; [exact K | exact Nj].
Qed.
Print Assumptions timestampsdirect_kill_shape.

Lemma elapsed_firstn_le : forall l j, Forall tick_ok l -> (0 <= elapsed (firstn j l) <= elapsed l)%Z.
Proof.
  induction l as [|o r IH]; intros j H; [destruct j; cbn; lia|]. inversion H as [|o' r' Ho Hr]; subst.
  pose proof (elapsed_nonneg r Hr) as Er. assert (Hdt : (0 <= dt_of o)%Z) by (destruct o; cbn [dt_of tick_ok] in *; lia).
  destruct j as [|j]; cbn [firstn elapsed]; [lia|]. specialize (IH j Hr). lia.
Qed.

(* ... in other words: compared with the writer that performs the acknowledged operations only and is stopped (not killed), the
   killed writer leaves the same file contents in the same order, or these and one more, empty, newest file *)
Theorem timestampsdirect_kill_vs_stopped c m t0 off ops1 k ops2 :
  tsdcfg c (CSize m) -> tag_ok c -> c_cap c = None ->
  Forall basic_op ops1 -> Forall basic_op ops2 -> Forall tick_ok ops1 -> Forall tick_ok ops2 ->
  let e := ts_e c off in
  (0 <= t0 + e)%Z -> (t0 + elapsed ops1 + elapsed ops2 + e < sec_max)%Z ->
  (N.of_nat (length ops1 + length ops2) <= usize_max)%N ->
  let x1 := fst (run (sys0 t0 off) (OStart c :: ops1 ++ [OSetKill k])) in
  let xe := fst (run (sys0 t0 off) (OStart c :: ops1 ++ [OSetKill k] ++ ops2 ++ [OCrash])) in
  exists j keys files keys0 files0,
    acked x1 ops2 = written (firstn j ops2)
    /\ tsd_view c e (wfs (s_w xe)) keys files
    /\ tsd_view c e (wfs (s_w (fst (run (sys0 t0 off) (OStart c :: (ops1 ++ firstn j ops2) ++ [OStop]))))) keys0 files0
    /\ (files = files0 \/ files = files0 ++ [[]]).
Proof.
  intros Hcfg T Hcap Hb1 Hb2 Htk1 Htk2 e Hlo Hhi Hmax x1 xe.
  destruct (timestampsdirect_kill_shape c m t0 off ops1 k ops2 Hcfg T Hcap Hb1 Hb2 Htk1 Htk2 Hlo Hhi Hmax) as [j [keys [files [Aj [V [_ Sh]]]]]].
  fold x1 in Aj. fold xe in V. fold e in V.
  set (ops := ops1 ++ firstn j ops2) in *.
  assert (Hb : Forall basic_op ops) by (apply Forall_app; split; [exact Hb1 | apply firstn_Forall; exact Hb2]).
  assert (Htk : Forall tick_ok ops) by (apply Forall_app; split; [exact Htk1 | apply firstn_Forall; exact Htk2]).
  pose proof (elapsed_firstn_le ops2 j Htk2) as Ej.
  assert (El : (elapsed ops = elapsed ops1 + elapsed (firstn j ops2))%Z) by (unfold ops; apply elapsed_app).
  assert (Ll : length ops <= length ops1 + length ops2).
  { unfold ops. rewrite app_length, firstn_length. lia. }
  destruct (run_view_tsd c (CSize m) t0 off ops Hcfg T Hb Htk Hlo ltac:(fold e; lia) ltac:(lia)) as [x0 [ob0 [_ [[keys0 [V0 _]] [_ Z]]]]].
  cbv zeta in V0, Z. destruct (Z m eq_refl) as [Hs _]. rewrite Hs in V0.
  exists j, keys, files, keys0, (files_of (s_run m None ops)). split; [exact Aj|]. split; [exact V|]. split; [exact V0 | exact Sh].
Qed.
Print Assumptions timestampsdirect_kill_vs_stopped.

(* ------------------------------------------------------------------ examples (non-vacuity): every kill point of a small history *)
Open Scope string_scope.
(* direct mode, size criterion 3 *)
Definition tsdk_cfg (app : bool) : config := tsd_cfg (ex_sp "log") app (CSize 3) None false.
Definition tsdk_ops1 : list op := [OWrite (bs "abcd"); OWrite (bs "ef")].
Definition tsdk_ops2 : list op := [OTrigger; OWrite (bs "gh"); OTick 1; OSnap; OWrite (bs "ijkl"); OWrite (bs "m")].
Definition tsdk_hist (app : bool) (k : nat) : list op := OStart (tsdk_cfg app) :: tsdk_ops1 ++ [OSetKill k] ++ tsdk_ops2 ++ [OCrash].
Definition tsdk_armed (app : bool) (k : nat) : sys := fst (run (sys0 0 0) (OStart (tsdk_cfg app) :: tsdk_ops1 ++ [OSetKill k])).

Lemma tsdk_cfg_ok app : tsdcfg (tsdk_cfg app) (CSize 3).
Proof. apply tsd_cfg_ok. reflexivity. Qed.
Lemma tsdk_tag_ok app : tag_ok (tsdk_cfg app).
Proof. apply tag_free_ok. split; vm_compute; reflexivity. Qed.
Lemma tsdk_basic1 : Forall basic_op tsdk_ops1.
Proof. repeat constructor. Qed.
Lemma tsdk_basic2 : Forall basic_op tsdk_ops2.
Proof. repeat constructor. Qed.
Lemma tsdk_ticks1 : Forall tick_ok tsdk_ops1.
Proof. repeat constructor. Qed.
Lemma tsdk_ticks2 : Forall tick_ok tsdk_ops2.
Proof. repeat (apply Forall_cons; [cbn [tick_ok]; first [exact Logic.I | lia]|]); apply Forall_nil. Qed.

(* the kill points of this history (the listings of the collision-free infix are no effects):
   0 - the creation of <00>.restart-0001 (the trigger) is the kill point: nothing changes, nothing further is acknowledged;
   1 - the rotation is completed (acknowledged, it writes nothing), the write of "gh" is the kill point: the new file is there, EMPTY;
   2 - "gh" is written, the write of "ijkl" is the kill point;
   3 - "ijkl" is written; the write of "m" rotates (6 > 3), the creation of <01> - the clock has advanced - is the kill point;
   4 - <01> is created, the write of "m" is the kill point: <01> is there, EMPTY;  5 - everything happens *)
Example tsdk_kill_points_dirs :
  List.map (fun k => snap_of (fst (run (sys0 0 0) (tsdk_hist false k)))) [0; 1; 2; 3; 4; 5]
  = [ [ (bs "app_r1970-01-01_00-00-00.log", 0%N, bs "abcd"); (bs "app_r1970-01-01_00-00-00.restart-0000.log", 0%N, bs "ef") ];
      [ (bs "app_r1970-01-01_00-00-00.log", 0%N, bs "abcd"); (bs "app_r1970-01-01_00-00-00.restart-0000.log", 0%N, bs "ef");
        (bs "app_r1970-01-01_00-00-00.restart-0001.log", 0%N, []) ];
      [ (bs "app_r1970-01-01_00-00-00.log", 0%N, bs "abcd"); (bs "app_r1970-01-01_00-00-00.restart-0000.log", 0%N, bs "ef");
        (bs "app_r1970-01-01_00-00-00.restart-0001.log", 0%N, bs "gh") ];
      [ (bs "app_r1970-01-01_00-00-00.log", 0%N, bs "abcd"); (bs "app_r1970-01-01_00-00-00.restart-0000.log", 0%N, bs "ef");
        (bs "app_r1970-01-01_00-00-00.restart-0001.log", 0%N, bs "ghijkl") ];
      [ (bs "app_r1970-01-01_00-00-00.log", 0%N, bs "abcd"); (bs "app_r1970-01-01_00-00-00.restart-0000.log", 0%N, bs "ef");
        (bs "app_r1970-01-01_00-00-00.restart-0001.log", 0%N, bs "ghijkl"); (bs "app_r1970-01-01_00-00-01.log", 0%N, []) ];
      [ (bs "app_r1970-01-01_00-00-00.log", 0%N, bs "abcd"); (bs "app_r1970-01-01_00-00-00.restart-0000.log", 0%N, bs "ef");
        (bs "app_r1970-01-01_00-00-00.restart-0001.log", 0%N, bs "ghijkl"); (bs "app_r1970-01-01_00-00-01.log", 0%N, bs "m") ] ]
  /\ List.map (fun k => acked (tsdk_armed false k) tsdk_ops2) [0; 1; 2; 3; 4; 5]
     = [ []; []; bs "gh"; bs "ghijkl"; bs "ghijkl"; bs "ghijklm" ]
  (* the append flag makes no difference for the killed writer *)
  /\ List.map (fun k => snap_of (fst (run (sys0 0 0) (tsdk_hist true k)))) [0; 1; 2; 3; 4; 5]
     = List.map (fun k => snap_of (fst (run (sys0 0 0) (tsdk_hist false k)))) [0; 1; 2; 3; 4; 5].
Proof. vm_compute. repeat split; reflexivity. Qed.

(* kill point 1: alive after the trigger, dead in the write of "gh" and ever after (the clock goes on) *)
Example tsdk_kill_alive :
  List.map (fun j => alive (s_w (fst (run (tsdk_armed false 1) (firstn j tsdk_ops2))))) [0; 1; 2; 3; 4; 5; 6]
  = [true; true; false; false; false; false; false]
  /\ wnow (s_w (fst (run (sys0 0 0) (tsdk_hist false 1)))) = 1%Z.
Proof. vm_compute. split; reflexivity. Qed.

Example tsdk_kill_instance :
  exists keys files,
    tsd_view (tsdk_cfg false) 0 (wfs (s_w (fst (run (sys0 0 0) (tsdk_hist false 4))))) keys files /\ keys_ok keys
    /\ concat files = bs "abcdefghijkl".
Proof.
  destruct (timestampsdirect_kill_keeps_acked (tsdk_cfg false) (CSize 3) 0 0 tsdk_ops1 4 tsdk_ops2 (tsdk_cfg_ok false) (tsdk_tag_ok false)
              eq_refl tsdk_basic1 tsdk_basic2 tsdk_ticks1 tsdk_ticks2) as [keys [files [V [K [_ E]]]]];
    [change (0 <= 0)%Z; lia | change (1 + 0 < sec_max)%Z; unfold sec_max; lia | vm_compute; discriminate |].
  exists keys, files. split; [exact V|]. split; [exact K|]. rewrite E. vm_compute. reflexivity.
Qed.

(* the shape at kill point 4: two operations more than at kill point 0 ... the acknowledged history is ops1 ++ the first five
   operations of ops2; its size run has the files abcd | ef | ghijkl, and the directory has one more, empty, file *)
Example tsdk_shape_instance :
  exists j keys files,
    acked (tsdk_armed false 4) tsdk_ops2 = written (firstn j tsdk_ops2)
    /\ tsd_view (tsdk_cfg false) 0 (wfs (s_w (fst (run (sys0 0 0) (tsdk_hist false 4))))) keys files /\ keys_ok keys
    /\ (files = files_of (s_run 3 None (tsdk_ops1 ++ firstn j tsdk_ops2))
        \/ files = files_of (s_run 3 None (tsdk_ops1 ++ firstn j tsdk_ops2)) ++ [[]]).
Proof.
  apply (timestampsdirect_kill_shape (tsdk_cfg false) 3 0 0 tsdk_ops1 4 tsdk_ops2 (tsdk_cfg_ok false) (tsdk_tag_ok false)
              eq_refl tsdk_basic1 tsdk_basic2 tsdk_ticks1 tsdk_ticks2);
    [change (0 <= 0)%Z; lia | change (1 + 0 < sec_max)%Z; unfold sec_max; lia | vm_compute; discriminate].
Qed.
Example tsdk_shape_computed :
  files_of (s_run 3 None (tsdk_ops1 ++ firstn 5 tsdk_ops2)) = [bs "abcd"; bs "ef"; bs "ghijkl"]
  /\ acked (tsdk_armed false 4) tsdk_ops2 = written (firstn 5 tsdk_ops2)
  /\ List.map (fun x : bytes * N * bytes => snd x) (snap_of (fst (run (sys0 0 0) (tsdk_hist false 4)))) = [bs "abcd"; bs "ef"; bs "ghijkl"; []].
Proof. vm_compute. repeat split; reflexivity. Qed.

(* a kill in the very first write: the creation of the first file is the kill point, the directory stays empty; one effect later
   the empty file is there *)
Example tsdk_kill_in_first_write :
  snap_of (fst (run (sys0 0 0) (OStart (tsdk_cfg true) :: [] ++ [OSetKill 0] ++ [OWrite (bs "a")] ++ [OCrash]))) = []
  /\ snap_of (fst (run (sys0 0 0) (OStart (tsdk_cfg true) :: [] ++ [OSetKill 1] ++ [OWrite (bs "a")] ++ [OCrash])))
     = [ (bs "app_r1970-01-01_00-00-00.log", 0%N, []) ]
  /\ snap_of (fst (run (sys0 0 0) (OStart (tsdk_cfg true) :: [] ++ [OSetKill 2] ++ [OWrite (bs "a")] ++ [OCrash])))
     = [ (bs "app_r1970-01-01_00-00-00.log", 0%N, bs "a") ].
Proof. vm_compute. repeat split; reflexivity. Qed.

Print Assumptions timestampsdirect_kill_keeps_acked.
Print Assumptions acked_is_prefix_tsd.
Print Assumptions timestampsdirect_kill_shape.
Print Assumptions timestampsdirect_kill_vs_stopped.
