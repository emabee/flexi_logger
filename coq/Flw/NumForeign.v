(* Files that are not members of the logger's file family are ignored (Numbers naming):
   a run in a directory that holds foreign files is, step by step, the embedding (ForeignFs.embed) of the run in the
   empty directory - same results, same rotation flags, same family files; the foreign files are never touched.

   - foreign name: the family test of the model rejects it (ForeignModel.num_member c n = false): it is not listed as a
     numbered file, neither plain nor as an archive, and it is not the current file.  Since the repair of the number
     filter ("r" and one or more digits, nothing else) this is exactly "the name does not follow the pattern
     <fixed>_r<digits>[.restart-NNNN][.suffix][.gz] and is not the rCURRENT file" (MemberPattern.num_member_iff); before
     it, the filter accepted "r", a digit and anything, and a_r1x.log was a member (near_miss_not_member).
   - numbers_foreign_ignored: no cleanup, every criterion, every history OStart c :: ops ++ [OStop] of basic operations
     (snapshots included: a snapshot shows the foreign entries in addition, strip_obs removes them).
   - numbers_stream_foreign: numbers_stream carries over.
   - with a cleanup strategy: NumCleanupForeign.v.
   The section GenRun is generic in the naming: run_embed_g only needs that on the states of the clean run (good) a write
   and a forced rotation commute with the embedding, and that their directories hold no foreign name (fam_g). *)
Require Import FL.Base.Bytes FL.Base.BytesFacts FL.Base.PathName FL.Fs.Fs FL.Fs.FsFacts FL.Time.Civil FL.Time.TsFormat
  FL.Names.FileSpec FL.Names.NamesFacts FL.Names.SortFacts FL.Names.FamilyFacts
  FL.Flw.Model FL.Flw.ModelFacts FL.Flw.NumFs FL.Flw.NumInv FL.Flw.Run FL.Flw.RunFacts FL.Flw.NumRun FL.Flw.NumTheorems
  FL.Flw.NumListing FL.Flw.ForeignFs FL.Flw.ForeignSort FL.Flw.ForeignModel FL.Oracles.O_Flw.
From Coq Require Import ZifyN ZifyNat ZifyBool.
Open Scope nat_scope.

(* an observation without the entries of the foreign files: only snapshots show the whole directory *)
Definition is_foreign (fnm : list bytes) (n : bytes) : bool := existsb (beq n) fnm.
Definition strip_obs (fnm : list bytes) (ob : obs) : obs :=
  match ob with
  | ObsSnap files link errs => ObsSnap (filter (fun e => negb (is_foreign fnm (fst (fst e)))) files) link errs
  | _ => ob
  end.

Lemma is_foreign_iff fnm n : is_foreign fnm n = true <-> In n fnm.
Proof.
  unfold is_foreign. rewrite existsb_exists. split.
  - intros [x [Hx B]]. apply beq_eq in B. subst x. exact Hx.
  - intros H. exists n. split; [exact H | apply beq_refl].
Qed.
Lemma is_foreign_false fnm n : ~ In n fnm -> is_foreign fnm n = false.
Proof. intros H. destruct (is_foreign fnm n) eqn:E; [|reflexivity]. apply is_foreign_iff in E. contradiction. Qed.

Lemma filter_map_comm {A B} (g : A -> B) (p : B -> bool) l : filter p (List.map g l) = List.map g (filter (fun x => p (g x)) l).
Proof. induction l as [|x l IH]; cbn [List.map filter]; [reflexivity|]. rewrite IH. destruct (p (g x)); reflexivity. Qed.

(* the snapshot needs no writer *)
Lemma step_snapshot x : step x OSnap = (x, snapshot (s_w x)).
Proof.
  unfold step, apply_start. cbn [names_computed andb].
  assert (E : match s_flw x with Some _ => x | None => x end = x) by (destruct (s_flw x); reflexivity).
  rewrite E. unfold step_core. destruct (s_flw x) as [s|]; [|reflexivity]. destruct (is_async s); reflexivity.
Qed.

Section Embed.
Variable fn : list (bytes * nat).
Variable fi : list file.
Notation fnm := (fnames fn).
Notation embw := (embedw fn fi).
Notation embs := (embeds fi).

Definition embedx (x : sys) : sys :=
  {| s_flw := match s_flw x with Some s => Some (embs s) | None => None end;
     s_w := embw (s_w x); s_tl := s_tl x; s_dead := s_dead x |}.

(* ---- one step: every operation of the histories considered, except the snapshot ---- *)
Definition run_op (o : op) : Prop :=
  match o with OWrite _ | OPlain _ | OFlush | OTrigger | OTick _ | OStop => True | _ => False end.

Lemma run_op_obs x o : run_op o -> strip_obs fnm (snd (sync_step x o)) = snd (sync_step x o).
Proof.
  intros Ho. destruct o; try contradiction; cbn [sync_step];
    repeat match goal with |- context [match ?X with _ => _ end] => destruct X end; reflexivity.
Qed.

(* ---- the snapshot ---- *)
Lemma snapshot_embed w : (forall n, In n (dir_names (wfs w)) -> ~ In n fnm) ->
  strip_obs fnm (snapshot (embw w)) = snapshot w.
Proof.
  intros Hown. unfold snapshot. change (wfs (embw w)) with (embed fn fi (wfs w)). cbn [strip_obs]. f_equal.
  rewrite filter_map_comm, dir_names_embed.
  rewrite (filter_ext (fun n => negb (is_foreign fnm (fst (fst
             match file_of (embed fn fi (wfs w)) n with
             | Some fl => (n, if fdir fl then 3%N else fgz fl, fdata fl) | None => (n, 0%N, []) end))))
           (fun n => negb (is_foreign fnm n))) by (intros n; destruct (file_of (embed fn fi (wfs w)) n); reflexivity).
  rewrite filter_sort_names_app by (intros b Hb; apply is_foreign_iff in Hb; rewrite Hb; reflexivity).
  rewrite filter_all_true by (intros n Hn; apply (proj1 (sort_names_in_iff _ _)) in Hn; rewrite is_foreign_false by (apply Hown; exact Hn); reflexivity).
  apply map_ext_in. intros n Hn. apply (proj1 (sort_names_in_iff _ _)) in Hn. apply dir_names_lookup in Hn. destruct Hn as [j Hj].
  rewrite (file_of_embed_known fn fi _ _ _ Hj). reflexivity.
Qed.

End Embed.

(* The run level, generic in the naming: if, on the states that the run in the clean directory passes through (good),
   writing a buffer and a forced rotation commute with the embedding into a directory with foreign files, then so does
   every history OStart c :: ops ++ [OStop] of basic operations, snapshots included. *)
Section GenRun.
Variable fn : list (bytes * nat).
Variable fi : list file.
Variable c : config.
Variable good : sys -> Prop.          (* the states of the run in the clean directory *)
Hypothesis Hts : fts (c_spec c) = false.
Hypothesis Hasync : c_async c = false.
Hypothesis Hgood_cfg : forall x s, good x -> s_flw x = Some s -> f_cfg s = c /\ f_poisoned s = false.
Hypothesis HW : forall x s b, good x -> s_flw x = Some s ->
  write_buffer (embeds fi s) (embedw fn fi (s_w x)) b = lwb fn fi (write_buffer s (s_w x) b).
Hypothesis HM : forall x s, good x -> s_flw x = Some s ->
  mount_next c (embedw fn fi (s_w x)) (shin fi (f_inner s)) true = lm fn fi (mount_next c (s_w x) (f_inner s) true).
Notation fnm := (fnames fn).
Notation embw := (embedw fn fi).
Notation embs := (embeds fi).
Notation embx := (embedx fn fi).

Lemma step_sync_of x o : (forall s, s_flw x = Some s -> f_cfg s = c) -> step x o = sync_step x o.
Proof.
  intros G. destruct (s_flw x) as [s|] eqn:Es; [|apply step_sync_none; exact Es].
  apply (step_sync_cfg x o s Es); rewrite (G s eq_refl); assumption.
Qed.

Lemma step_sync_clean x o : good x -> step x o = sync_step x o.
Proof. intros G. apply step_sync_of. intros s Es. apply (Hgood_cfg x s G Es). Qed.

Lemma step_sync_emb x o : good x -> step (embx x) o = sync_step (embx x) o.
Proof.
  intros G. apply step_sync_of. intros s Es. unfold embedx in Es. cbn [s_flw] in Es.
  destruct (s_flw x) as [s0|] eqn:E0; [|discriminate]. injection Es as <-. cbn [embeds f_cfg]. apply (Hgood_cfg x s0 G E0).
Qed.

Lemma sync_step_embed_g x o : good x -> run_op o ->
  sync_step (embx x) o = (embx (fst (sync_step x o)), snd (sync_step x o)).
Proof.
  intros G Ho. destruct o; try contradiction; cbn [sync_step embedx s_flw s_w s_tl s_dead]; try reflexivity;
    (destruct (s_flw x) as [s|] eqn:Es; [|reflexivity]); destruct (Hgood_cfg x s G Es) as [Ec Hp];
    change (f_poisoned (embs s)) with (f_poisoned s); rewrite Hp.
  - (* OWrite *)
    rewrite (HW x s _ G Es).
    destruct (write_buffer s (s_w x) (s_tl x ++ b)) as [[[r w1] s1] rot]. cbn [lwb].
    destruct r; cbn [fst snd embedx s_flw s_w s_tl s_dead]; try reflexivity. rewrite report_embed. reflexivity.
  - (* OPlain *)
    rewrite (HW x s _ G Es).
    destruct (write_buffer s (s_w x) b) as [[[r w1] s1] rot]. reflexivity.
  - (* OFlush *)
    rewrite flush_state_embed. destruct (flush_state s (s_w x)) as [[ok w1] s1]. reflexivity.
  - (* OTrigger *)
    change (f_cfg (embs s)) with (f_cfg s). change (f_inner (embs s)) with (shin fi (f_inner s)). rewrite Ec.
    rewrite (HM x s G Es).
    destruct (mount_next c (s_w x) (f_inner s) true) as [[r w1] st1]. cbn [lm]. destruct r; reflexivity.
  - (* OStop *) rewrite drop_state_embed. reflexivity.
Qed.

Lemma step_embed_g x o : good x -> run_op o ->
  step (embx x) o = (embx (fst (step x o)), snd (step x o)).
Proof.
  intros G Ho. rewrite (step_sync_emb x o G), (step_sync_clean x o G). apply sync_step_embed_g; assumption.
Qed.

(* a state of the clean run whose directory holds no name of the stock *)
Definition fam_g (x : sys) : Prop := good x /\ forall n, In n (dir_names (wfs (s_w x))) -> ~ In n fnm.

Lemma step_embed_fam_g x o : fam_g x -> basic_op o ->
  fst (step (embx x) o) = embx (fst (step x o))
  /\ strip_obs fnm (snd (step (embx x) o)) = snd (step x o)
  /\ (o <> OSnap -> snd (step (embx x) o) = snd (step x o)).
Proof.
  intros [G Hown] Hb.
  assert (R : run_op o -> fst (step (embx x) o) = embx (fst (step x o))
              /\ strip_obs fnm (snd (step (embx x) o)) = snd (step x o)
              /\ (o <> OSnap -> snd (step (embx x) o) = snd (step x o))).
  { intros Ho. rewrite (step_embed_g x o G Ho). cbn [fst snd]. split; [reflexivity|]. split; [|reflexivity].
    rewrite (step_sync_clean x o G). apply run_op_obs. exact Ho. }
  destruct o; try contradiction; try (apply R; exact Logic.I).
  (* OSnap *)
  rewrite !step_snapshot. cbn [fst snd]. split; [reflexivity|]. split; [|congruence].
  cbn [embedx s_w]. apply snapshot_embed. exact Hown.
Qed.

Lemma run_embed_g : forall ops x, (forall i, fam_g (fst (run x (firstn i ops)))) -> Forall basic_op ops ->
  fst (run (embx x) ops) = embx (fst (run x ops))
  /\ List.map (strip_obs fnm) (snd (run (embx x) ops)) = snd (run x ops)
  /\ (Forall (fun o => o <> OSnap) ops -> snd (run (embx x) ops) = snd (run x ops)).
Proof.
  induction ops as [|o r IH]; intros x F Hb; [repeat split|].
  inversion Hb as [|o' r' Ho Hr]; subst. cbn [run].
  pose proof (step_embed_fam_g x o (F 0) Ho) as [E1 [E2 E3]].
  assert (F1 : forall i, fam_g (fst (run (fst (step x o)) (firstn i r)))).
  { intros i. specialize (F (S i)). cbn [firstn run] in F. destruct (step x o) as [x1 ob]. cbn [fst].
    destruct (run x1 (firstn i r)) as [x2 obs]. exact F. }
  destruct (step (embx x) o) as [xf1 obf] eqn:Ef. destruct (step x o) as [x1 ob] eqn:Ex. cbn [fst snd] in *.
  subst xf1. specialize (IH x1 F1 Hr).
  destruct (run (embx x1) r) as [xf2 obsf]. destruct (run x1 r) as [x2 obs]. cbn [fst snd] in *.
  destruct IH as [I1 [I2 I3]]. split; [exact I1|]. split.
  - cbn [List.map]. rewrite E2, I2. reflexivity.
  - intros Hs. inversion Hs as [|o'' r'' Hso Hsr]. rewrite (E3 Hso), (I3 Hsr). reflexivity.
Qed.

(* ---- a whole run: start, history, stop ---- *)
Lemma run_full_embed_g t0 off ops : Forall basic_op ops ->
  (forall i, fam_g (fst (run (fst (step (sys0 t0 off) (OStart c))) (firstn i ops)))) ->
  let ops' := OStart c :: ops ++ [OStop] in
  fst (run (embx (sys0 t0 off)) ops') = embx (fst (run (sys0 t0 off) ops'))
  /\ List.map (strip_obs fnm) (snd (run (embx (sys0 t0 off)) ops')) = snd (run (sys0 t0 off) ops')
  /\ (Forall (fun o => o <> OSnap) ops -> snd (run (embx (sys0 t0 off)) ops') = snd (run (sys0 t0 off) ops')).
Proof.
  intros Hb F ops'. subst ops'. cbn [run].
  assert (E0 : step (embx (sys0 t0 off)) (OStart c) = (embx (fst (step (sys0 t0 off) (OStart c))), ObsRes 0 false)) by reflexivity.
  rewrite E0. clear E0.
  destruct (step (sys0 t0 off) (OStart c)) as [x0 ob0] eqn:Ex0.
  assert (Eob : ob0 = ObsRes 0 false) by (cbn in Ex0; congruence).
  cbn [fst] in *. rewrite !run_app.
  pose proof (run_embed_g ops x0 F Hb) as [E1 [E2 E3]].
  pose proof (F (length ops)) as [G1 _]. rewrite firstn_all in G1.
  destruct (run (embx x0) ops) as [xf1 obsf1]. destruct (run x0 ops) as [x1 obs1]. cbn [fst snd] in *. subst xf1.
  cbn [run]. pose proof (step_embed_g x1 OStop G1 Logic.I) as ES.
  assert (Eob2 : strip_obs fnm (snd (step x1 OStop)) = snd (step x1 OStop)).
  { rewrite (step_sync_clean x1 _ G1). apply run_op_obs. exact Logic.I. }
  destruct (step (embx x1) OStop) as [xf2 obf2]. destruct (step x1 OStop) as [x2 ob2]. cbn [fst snd] in *.
  injection ES as -> ->.
  split; [reflexivity|]. split.
  - cbn [List.map]. rewrite map_app, E2, Eob. cbn [List.map]. rewrite Eob2. reflexivity.
  - intros Hs. rewrite (E3 Hs), Eob. reflexivity.
Qed.

End GenRun.

(* ---- Numbers naming with cleanup strategy kc ---- *)
Section Run.
Variable fn : list (bytes * nat).
Variable fi : list file.
Variable c : config.
Variable crit : criterion.
Variable kc : cleanup.
Hypothesis Hrot : c_rot c = Some (crit, NNumbers, kc).
Hypothesis Hts : fts (c_spec c) = false.
Hypothesis Hlink : c_symlink c = false.
Hypothesis Hasync : c_async c = false.
Hypothesis Hk : kc = KNever \/ (c_bg c = false /\ fsfx (c_spec c) <> Some gz_sfx).
Hypothesis Hforeign : forall n, In n (fnames fn) -> num_member c n = false.

Definition good_sys (x : sys) : Prop := forall s, s_flw x = Some s -> good_flw c kc s.

Lemma good_sys_cfg x s : good_sys x -> s_flw x = Some s -> f_cfg s = c /\ f_poisoned s = false.
Proof. intros G Es. destruct (G s Es) as [Ec [Hp _]]. split; assumption. Qed.

Lemma good_sys_write x s b : good_sys x -> s_flw x = Some s ->
  write_buffer (embeds fi s) (embedw fn fi (s_w x)) b = lwb fn fi (write_buffer s (s_w x) b).
Proof. intros G Es. apply (write_buffer_embed fn fi c crit kc Hrot Hts Hlink Hk Hforeign). exact (G s Es). Qed.

Lemma good_sys_mount x s : good_sys x -> s_flw x = Some s ->
  mount_next c (embedw fn fi (s_w x)) (shin fi (f_inner s)) true = lm fn fi (mount_next c (s_w x) (f_inner s) true).
Proof. intros G Es. apply (mount_next_embed fn fi c kc Hts Hlink Hk Hforeign). apply (G s Es). Qed.

Lemma step_embed x o : good_sys x -> run_op o ->
  step (embedx fn fi x) o = (embedx fn fi (fst (step x o)), snd (step x o)).
Proof. exact (step_embed_g fn fi c good_sys Hts Hasync good_sys_cfg good_sys_write good_sys_mount x o). Qed.

(* a system whose writer (if any) is of the kind considered and whose directory holds no name of the stock *)
Definition fam_sys (x : sys) : Prop := fam_g fn good_sys x.

(* ---- a history: every state that the run in the clean directory passes through is of the kind considered ---- *)
Lemma run_embed_gen : forall ops x, (forall i, fam_sys (fst (run x (firstn i ops)))) -> Forall basic_op ops ->
  fst (run (embedx fn fi x) ops) = embedx fn fi (fst (run x ops))
  /\ List.map (strip_obs (fnames fn)) (snd (run (embedx fn fi x) ops)) = snd (run x ops)
  /\ (Forall (fun o => o <> OSnap) ops -> snd (run (embedx fn fi x) ops) = snd (run x ops)).
Proof. exact (run_embed_g fn fi c good_sys Hts Hasync good_sys_cfg good_sys_write good_sys_mount). Qed.

End Run.

Lemma Forall_firstn' {A} (P : A -> Prop) (l : list A) i : Forall P l -> Forall P (firstn i l).
Proof. revert i. induction l as [|x l IH]; intros [|i] H; cbn [firstn]; auto. inversion H; subst. constructor; auto. Qed.

(* ---- without cleanup: the states related to an abstract view are of the kind considered ---- *)
Lemma rel_fam fn c crit x a : (forall n, In n (fnames fn) -> num_member c n = false) ->
  Rel c crit x a -> fam_sys fn c KNever x.
Proof.
  intros Hforeign [_ [_ R]]. split.
  - intros s Es. destruct a as [[closed cur]|].
    + destruct R as [wr [roll [E _]]]. rewrite E in Es. injection Es as <-. repeat split. cbn. eauto.
    + destruct R as [E _]. rewrite E in Es. injection Es as <-. repeat split.
  - intros n Hn. destruct a as [[closed cur]|].
    + destruct R as [wr [roll [_ [I _]]]]. apply dir_names_lookup in Hn. destruct Hn as [j Hj].
      destruct (ni_only _ _ _ _ I n j Hj) as [->|[i [_ ->]]].
      * exact (cname_own fn c Hforeign).
      * apply (rname_own fn c Hforeign).
    + destruct R as [_ [_ [E _]]]. unfold dir_names in Hn. rewrite E in Hn. destruct Hn.
Qed.

(* ------------------------------------------------------------------ the directory with the foreign files *)
Definition plain_file (t0 : Z) (d : bytes) : file := {| fdata := d; fgz := 0%N; fborn := t0; fdir := false |}.

(* the foreign files are there before the logger starts: created one after the other (the last of the list first) *)
Definition fs0f (t0 : Z) (foreign : list (bytes * bytes)) : fs :=
  fold_right (fun p f => ext_create f (fst p) 0%N (snd p) t0) empty_fs foreign.
Definition sys0f (t0 off : Z) (foreign : list (bytes * bytes)) : sys :=
  {| s_flw := None; s_w := set_fs (world0 t0 off) (fs0f t0 foreign); s_tl := []; s_dead := false |}.

Lemma upd_app_last {A} (l : list A) x y : upd (l ++ [x]) (length l) y = l ++ [y].
Proof. induction l as [|z l IH]; cbn [app length upd]; [reflexivity|]. rewrite IH. reflexivity. Qed.

Lemma ext_create_fresh f a d now : lookup f a = None ->
  ext_create f a 0%N d now = {| names := (a, length (inodes f)) :: names f; inodes := inodes f ++ [plain_file now d] |}.
Proof.
  intros H. unfold ext_create. rewrite open_trunc_fresh by exact H. unfold create_file. cbn [names inodes].
  rewrite upd_app_last. unfold inode. cbn [inodes]. rewrite inode_app_new. reflexivity.
Qed.

Lemma fs0f_spec t0 foreign : NoDup (List.map fst foreign) ->
  dir_names (fs0f t0 foreign) = List.map fst foreign
  /\ (forall n j, lookup (fs0f t0 foreign) n = Some j -> j < length (inodes (fs0f t0 foreign)))
  /\ (forall n d, In (n, d) foreign -> file_of (fs0f t0 foreign) n = Some (plain_file t0 d)).
Proof.
  induction foreign as [|[a d0] r IH]; intros ND.
  - split; [reflexivity|]. split; [intros n j H; discriminate | intros n d []].
  - cbn [List.map fst] in ND. inversion ND as [|a' r' Ha NDr]; subst. destruct (IH NDr) as [Hd [Hb Hf]].
    assert (La : lookup (fs0f t0 r) a = None).
    { destruct (lookup (fs0f t0 r) a) as [j|] eqn:E; [|reflexivity]. exfalso. apply Ha. rewrite <- Hd.
      apply dir_names_lookup. eauto. }
    cbn [fs0f fold_right fst snd]. fold (fs0f t0 r). rewrite (ext_create_fresh _ _ _ _ La).
    set (F := fs0f t0 r) in *.
    assert (Lk : forall n, lookup {| names := (a, length (inodes F)) :: names F; inodes := inodes F ++ [plain_file t0 d0] |} n
                 = if beq a n then Some (length (inodes F)) else lookup F n).
    { intros n. unfold lookup. cbn [names find fst snd]. destruct (beq a n); reflexivity. }
    split; [|split].
    + unfold dir_names. cbn [names List.map fst]. fold (dir_names F). rewrite Hd. reflexivity.
    + intros n j. rewrite Lk. cbn [inodes]. rewrite app_length. cbn [length]. destruct (beq a n).
      * intros E. injection E as <-. lia.
      * intros E. apply Hb in E. lia.
    + intros n d Hin. unfold file_of. rewrite Lk. destruct Hin as [E|Hin].
      * injection E as <- <-. rewrite beq_refl. unfold inode. cbn [inodes]. rewrite inode_app_new. reflexivity.
      * assert (Hne : a <> n). { intros <-. apply Ha. apply (in_map fst) in Hin. exact Hin. }
        rewrite beq_neq by exact Hne. pose proof (Hf n d Hin) as Fo. unfold file_of in Fo.
        destruct (lookup F n) as [j|] eqn:Ej; [|discriminate]. unfold inode. cbn [inodes].
        rewrite inode_app_old by (eapply Hb; eassumption). exact Fo.
Qed.

Lemma sys0f_embed t0 off foreign :
  sys0f t0 off foreign = embedx (names (fs0f t0 foreign)) (inodes (fs0f t0 foreign)) (sys0 t0 off).
Proof.
  unfold sys0f, embedx, sys0. cbn [s_flw s_w s_tl s_dead]. f_equal. unfold embedw. cbn [world0 wfs]. rewrite stock_embed.
  unfold stock. destruct (fs0f t0 foreign); reflexivity.
Qed.

(* ------------------------------------------------------------------ the theorem *)
(* what "the foreign files are ignored" means for the histories  OStart c :: ops ++ [OStop] *)
Definition foreign_ignored (c : config) (t0 off : Z) (foreign : list (bytes * bytes)) (ops : list op) : Prop :=
  let ops' := OStart c :: ops ++ [OStop] in
  let rf := run (sys0f t0 off foreign) ops' in
  let r0 := run (sys0 t0 off) ops' in
  (* 1: the same observations; a snapshot shows the foreign files in addition *)
  List.map (strip_obs (List.map fst foreign)) (snd rf) = snd r0
  /\ (Forall (fun o => o <> OSnap) ops -> snd rf = snd r0)
  (* 2: the foreign files are in place, unchanged *)
  /\ (forall n d, In (n, d) foreign -> file_of (wfs (s_w (fst rf))) n = Some (plain_file t0 d))
  (* 3: every other name is what the run in the empty directory makes of it *)
  /\ (forall n, ~ In n (List.map fst foreign) -> file_of (wfs (s_w (fst rf))) n = file_of (wfs (s_w (fst r0))) n)
  /\ (forall n, In n (List.map fst foreign) -> file_of (wfs (s_w (fst r0))) n = None)
  (* the whole state: the run is the embedding of the run in the empty directory *)
  /\ fst rf = embedx (names (fs0f t0 foreign)) (inodes (fs0f t0 foreign)) (fst r0).

Lemma fs0f_names t0 foreign : NoDup (List.map fst foreign) -> fnames (names (fs0f t0 foreign)) = List.map fst foreign.
Proof. intros ND. exact (proj1 (fs0f_spec t0 foreign ND)). Qed.

(* reading the directory with the foreign files (ff) through the one of the run in the empty directory (f0): a name that
   is not foreign is what that run makes of it *)
Section Carry.
Variable foreign : list (bytes * bytes).
Variables ff f0 : fs.
Variable t0 : Z.
Hypothesis F2 : forall n d, In (n, d) foreign -> file_of ff n = Some (plain_file t0 d).
Hypothesis F3 : forall n, ~ In n (List.map fst foreign) -> file_of ff n = file_of f0 n.

Lemma own_file n j (P : file -> Prop) : ~ In n (List.map fst foreign) -> lookup f0 n = Some j -> P (inode f0 j) ->
  exists fl, file_of ff n = Some fl /\ P fl.
Proof. intros Hn Lj HP. exists (inode f0 j). split; [rewrite (F3 n Hn); unfold file_of; rewrite Lj; reflexivity | exact HP]. Qed.

Lemma own_exists n : ~ In n (List.map fst foreign) -> file_of ff n <> None -> exists j, lookup f0 n = Some j.
Proof.
  intros Hn Hex. rewrite (F3 n Hn) in Hex. unfold file_of in Hex. destruct (lookup f0 n) as [j|]; [eauto | congruence].
Qed.

(* the names that exist: the foreign ones and those of the run in the empty directory *)
Lemma exists_iff (Q : bytes -> Prop) : (forall x, (exists j, lookup f0 x = Some j) <-> Q x) ->
  forall x, file_of ff x <> None <-> In x (List.map fst foreign) \/ Q x.
Proof.
  intros Pn x. destruct (in_dec (list_eq_dec N.eq_dec) x (List.map fst foreign)) as [Hi|Hi].
  - split; [intros _; left; exact Hi|]. intros _. apply in_map_iff in Hi. destruct Hi as [[x' d] [E Hi]]. cbn in E. subst x'.
    rewrite (F2 x d Hi). discriminate.
  - rewrite (F3 x Hi), <- Pn. unfold file_of. split.
    + intros H. right. destruct (lookup f0 x) as [j|]; [eauto | congruence].
    + intros [H|[j H]]; [contradiction | rewrite H; discriminate].
Qed.
End Carry.

(* the common part of the end-to-end theorems: it suffices that the states of the run in the empty directory are of the
   kind considered (on which a write and a forced rotation commute with the embedding) and that no directory of the run
   holds a foreign name *)
Lemma foreign_ignored_g c (good : sys -> Prop) t0 off foreign ops :
  fts (c_spec c) = false -> c_async c = false ->
  (forall x s, good x -> s_flw x = Some s -> f_cfg s = c /\ f_poisoned s = false) ->
  (forall x s b, good x -> s_flw x = Some s ->
     write_buffer (embeds (inodes (fs0f t0 foreign)) s) (embedw (names (fs0f t0 foreign)) (inodes (fs0f t0 foreign)) (s_w x)) b
     = lwb (names (fs0f t0 foreign)) (inodes (fs0f t0 foreign)) (write_buffer s (s_w x) b)) ->
  (forall x s, good x -> s_flw x = Some s ->
     mount_next c (embedw (names (fs0f t0 foreign)) (inodes (fs0f t0 foreign)) (s_w x)) (shin (inodes (fs0f t0 foreign)) (f_inner s)) true
     = lm (names (fs0f t0 foreign)) (inodes (fs0f t0 foreign)) (mount_next c (s_w x) (f_inner s) true)) ->
  Forall basic_op ops -> NoDup (List.map fst foreign) ->
  (forall i, fam_g (names (fs0f t0 foreign)) good (fst (run (fst (step (sys0 t0 off) (OStart c))) (firstn i ops)))) ->
  (forall n, In n (List.map fst foreign) ->
     lookup (wfs (s_w (fst (run (sys0 t0 off) (OStart c :: ops ++ [OStop]))))) n = None) ->
  foreign_ignored c t0 off foreign ops.
Proof.
  intros Hts Hasync Hcfg HW HM Hb ND F E4. unfold foreign_ignored. cbv zeta.
  set (ops' := OStart c :: ops ++ [OStop]) in *.
  destruct (fs0f_spec t0 foreign ND) as [Hd [Hbd Hf]].
  set (fn := names (fs0f t0 foreign)) in *. set (fi := inodes (fs0f t0 foreign)) in *.
  assert (Hfn : fnames fn = List.map fst foreign) by exact Hd.
  rewrite sys0f_embed. fold fn fi.
  destruct (run_full_embed_g fn fi c good Hts Hasync Hcfg HW HM t0 off ops Hb F) as [E1 [E2 E3]].
  fold ops' in E1, E2, E3. rewrite Hfn in E2.
  assert (Est : stock fn fi = fs0f t0 foreign) by (unfold stock, fn, fi; destruct (fs0f t0 foreign); reflexivity).
  split; [exact E2|]. split; [exact E3|]. rewrite E1. cbn [embedx s_w]. unfold embedw. cbn [set_fs wfs].
  split; [|split; [|split; [|reflexivity]]].
  - intros n d Hin. rewrite file_of_embed_stock.
    + rewrite Est. apply Hf. exact Hin.
    + apply E4. apply (in_map fst) in Hin. exact Hin.
    + rewrite Est. intros j Hj. apply Hbd in Hj. exact Hj.
  - intros n Hn. apply file_of_embed_own. rewrite Hfn. exact Hn.
  - intros n Hn. unfold file_of. rewrite (E4 n Hn). reflexivity.
Qed.

(* The foreign-name condition: the family test of the model (num_member) rejects the name - it is not listed as a
   numbered file, neither plain nor compressed, and it is not the current file.  The conclusion is
   foreign_ignored c t0 off foreign ops, unfolded. *)
Theorem numbers_foreign_ignored c crit t0 off foreign ops :
  numcfg c crit -> Forall basic_op ops ->
  NoDup (List.map fst foreign) ->
  (forall n, In n (List.map fst foreign) -> num_member c n = false) ->
  let ops' := OStart c :: ops ++ [OStop] in
  let rf := run (sys0f t0 off foreign) ops' in
  let r0 := run (sys0 t0 off) ops' in
  List.map (strip_obs (List.map fst foreign)) (snd rf) = snd r0
  /\ (Forall (fun o => o <> OSnap) ops -> snd rf = snd r0)
  /\ (forall n d, In (n, d) foreign -> file_of (wfs (s_w (fst rf))) n = Some (plain_file t0 d))
  /\ (forall n, ~ In n (List.map fst foreign) -> file_of (wfs (s_w (fst rf))) n = file_of (wfs (s_w (fst r0))) n)
  /\ (forall n, In n (List.map fst foreign) -> file_of (wfs (s_w (fst r0))) n = None)
  /\ fst rf = embedx (names (fs0f t0 foreign)) (inodes (fs0f t0 foreign)) (fst r0).
Proof.
  intros Hcfg Hb ND Hfor. pose proof Hcfg as [Hrot [Hts [Hlink Hasync]]].
  assert (Hforeign : forall n, In n (fnames (names (fs0f t0 foreign))) -> num_member c n = false).
  { rewrite (fs0f_names t0 foreign ND). exact Hfor. }
  apply (foreign_ignored_g c (good_sys c KNever) t0 off foreign ops Hts Hasync (good_sys_cfg c KNever)
           (good_sys_write _ _ c crit KNever Hrot Hts Hlink (or_introl eq_refl) Hforeign)
           (good_sys_mount _ _ c KNever Hts Hlink (or_introl eq_refl) Hforeign) Hb ND).
  - intros i. eapply rel_fam; [exact Hforeign|].
    apply (run_rel c crit Hcfg (firstn i ops) _ None (start_rel c crit t0 off)). apply Forall_firstn'. exact Hb.
  - intros n Hn. rewrite <- (fs0f_names t0 foreign ND) in Hn. cbn [run]. destruct (step (sys0 t0 off) (OStart c)) as [x0 ob0] eqn:Ex0.
    pose proof (start_rel c crit t0 off) as R0. rewrite Ex0 in R0. cbn [fst] in R0. rewrite run_app.
    pose proof (run_rel c crit Hcfg ops x0 None R0 Hb) as R1.
    destruct (run x0 ops) as [x1 obs1]. cbn [fst snd] in *.
    pose proof (stop_rel c crit x1 _ Hcfg R1) as S. cbn [run]. destruct (step x1 OStop) as [x2 ob2]. cbn [fst].
    destruct (lookup (wfs (s_w x2)) n) as [j|] eqn:Ej; [exfalso|reflexivity].
    destruct (a_run None ops obs1) as [[closed cur]|].
    + destruct S as [_ [_ Hon]]. destruct (Hon n j Ej) as [->|[i [_ ->]]].
      * exact (cname_own _ c Hforeign Hn).
      * exact (rname_own _ c Hforeign _ Hn).
    + unfold lookup in Ej. rewrite S in Ej. discriminate.
Qed.
Print Assumptions numbers_foreign_ignored.

(* ------------------------------------------------------------------ the stream of records *)
Lemma member_rname c i : num_member c (rname c i) = true.
Proof. unfold num_member. rewrite qf_rname. reflexivity. Qed.
Lemma member_cname c : num_member c (cname c) = true.
Proof. unfold num_member. rewrite beq_refl, !orb_true_r. reflexivity. Qed.

(* the family files of a directory that may hold other files, too: r00000.., rCURRENT hold `files`, and no other
   name outside the foreign ones exists *)
Definition reads_family (c : config) (fnm : list bytes) (f : fs) (files : list bytes) : Prop :=
  match files with
  | [] => forall n, ~ In n fnm -> file_of f n = None
  | _ => exists closed cur, files = closed ++ [cur]
         /\ (forall i, i < length closed ->
               exists fl, file_of f (rname c i) = Some fl /\ plain fl /\ fdata fl = nth i closed [])
         /\ (exists fl, file_of f (cname c) = Some fl /\ plain fl /\ fdata fl = cur)
         /\ (forall n, ~ In n fnm -> file_of f n <> None -> n = cname c \/ exists i, i < length closed /\ n = rname c i)
  end.

(* numbers_stream carries over: with foreign files in the directory the family files still hold, in their order,
   exactly the bytes written *)
Theorem numbers_stream_foreign c crit t0 off foreign ops :
  numcfg c crit -> Forall basic_op ops ->
  NoDup (List.map fst foreign) ->
  (forall n, In n (List.map fst foreign) -> num_member c n = false) ->
  exists files,
    reads_family c (List.map fst foreign)
      (wfs (s_w (fst (run (sys0f t0 off foreign) (OStart c :: ops ++ [OStop]))))) files
    /\ concat files = written ops.
Proof.
  intros Hcfg Hb ND Hfor.
  destruct (numbers_foreign_ignored c crit t0 off foreign ops Hcfg Hb ND Hfor) as [_ [_ [_ [H3 _]]]].
  destruct (numbers_stream c crit t0 off ops Hcfg Hb) as [files [Hr Hc]].
  exists files. split; [|exact Hc].
  set (ff := wfs (s_w (fst (run (sys0f t0 off foreign) (OStart c :: ops ++ [OStop]))))) in *.
  set (f0 := wfs (s_w (fst (run (sys0 t0 off) (OStart c :: ops ++ [OStop]))))) in *.
  assert (Hrn : forall i, ~ In (rname c i) (List.map fst foreign)).
  { intros i Hi. apply Hfor in Hi. rewrite member_rname in Hi. discriminate. }
  assert (Hcn : ~ In (cname c) (List.map fst foreign)).
  { intros Hi. apply Hfor in Hi. rewrite member_cname in Hi. discriminate. }
  unfold reads in Hr. unfold reads_family. destruct files as [|f1 fr].
  - intros n Hn. rewrite (H3 n Hn). unfold file_of, lookup. rewrite Hr. reflexivity.
  - destruct Hr as [closed [cur [E [Hcl [Hcu Hon]]]]]. exists closed, cur. split; [exact E|]. split; [|split].
    + intros i Hi. destruct (Hcl i Hi) as [j [Lj PC]]. exact (own_file _ ff f0 H3 _ j _ (Hrn i) Lj PC).
    + destruct Hcu as [j [Lj PC]]. exact (own_file _ ff f0 H3 _ j _ Hcn Lj PC).
    + intros n Hn Hex. destruct (own_exists _ ff f0 H3 n Hn Hex) as [j Lj]. exact (Hon n j Lj).
Qed.
Print Assumptions numbers_stream_foreign.

(* ------------------------------------------------------------------ which names are foreign *)
(* a member other than the current file has the shape  <fixed>_ r <one or more digits> <rest>  (the rest: the restart
   part, the suffix, ".gz"; MemberPattern.num_member_iff has the exact shape): names of another shape are foreign, in particular every
   name that does not start with the fixed name part, and every name with anything but digits between "r" and the
   first dot *)
Theorem num_member_shape c n : num_member c n = true ->
  n = cname c \/ exists ds y, ds <> [] /\ all_digits ds = true /\ n = under (fixed0 c) ++ r_char :: ds ++ y.
Proof.
  unfold num_member. intros H. apply orb_true_iff in H. destruct H as [H|H]; [|left; apply beq_eq; exact H].
  right. apply orb_true_iff in H. destruct H as [H|H]; eapply qf_num_shape; exact H.
Qed.

Corollary foreign_no_prefix c n : is_prefix (fixed0 c) n = false -> num_member c n = false.
Proof.
  intros Hp. destruct (num_member c n) eqn:E; [|reflexivity]. exfalso.
  apply num_member_shape in E. destruct E as [->|[ds [y [_ [_ ->]]]]].
  - rewrite cname_shape, is_prefix_under in Hp. discriminate.
  - rewrite is_prefix_under in Hp. discriminate.
Qed.

(* ------------------------------------------------------------------ examples *)
Import String.StringSyntax.
Open Scope string_scope.
Definition ex_c : config :=
  {| c_spec := {| fbase := bs "a"; fdisc := None; fts := false; fsfx := Some (bs "log") |};
     c_append := false; c_cap := None; c_rot := Some (CSize 3, NNumbers, KNever); c_utc := false;
     c_symlink := false; c_bg := false; c_async := false; c_start := None |}.

(* near misses of the family a_r<number>.log / a_rCURRENT.log: another suffix behind or instead of the suffix, no
   digit, another fixed part, no suffix, an archive of the current file, the fixed part alone - and the names that the
   number filter of the code took for numbered files before its repair ("r", a digit, anything): a letter behind the
   number, a word behind the number, a time-stamp infix *)
Definition ex_foreign : list (bytes * bytes) :=
  [ (bs "a_r00001.log.bak", bs "w"); (bs "a_rx.log", bs "x"); (bs "b.log", bs "y"); (bs "a_r00001.txt", bs "z");
    (bs "ax_r00001.log", bs "v"); (bs "a_r00001", bs "t"); (bs "a_rCURRENT.log.gz", bs "s");
    (bs "a.log", bs "q");
    (bs "a_r1x.log", bs "1"); (bs "a_r1backup.log", bs "2"); (bs "a_r00001x.log", bs "3");
    (bs "a_r2024-02-29_23-59-58.log", bs "4") ].

(* three rotations: "abcd" is larger than 3, the trigger, "ghij" is larger than 3 *)
Definition ex_ops : list op :=
  [OWrite (bs "abcd"); OWrite (bs "ef"); OTrigger; OWrite (bs "ghij"); OSnap; OWrite (bs "k")].

Definition ex_snap (x : sys) : list (bytes * N * bytes) :=
  match snapshot (s_w x) with ObsSnap l _ _ => l | _ => [] end.

Example foreign_hypotheses :
  numcfg ex_c (CSize 3) /\ Forall basic_op ex_ops /\ NoDup (List.map fst ex_foreign)
  /\ (forall n, In n (List.map fst ex_foreign) -> num_member ex_c n = false).
Proof.
  split; [repeat split|]. split; [repeat constructor|]. split.
  - apply nodupb_sound. vm_compute. reflexivity.
  - apply forallb_false. vm_compute. reflexivity.
Qed.

(* the theorem applied *)
Example foreign_instance :
  List.map (strip_obs (List.map fst ex_foreign)) (snd (run (sys0f 0 0 ex_foreign) (OStart ex_c :: ex_ops ++ [OStop])))
  = snd (run (sys0 0 0) (OStart ex_c :: ex_ops ++ [OStop])).
Proof.
  destruct foreign_hypotheses as [H1 [H2 [H3 H4]]].
  exact (proj1 (numbers_foreign_ignored ex_c (CSize 3) 0 0 ex_foreign ex_ops H1 H2 H3 H4)).
Qed.

(* ... and computed: the directory after the run *)
Example foreign_instance_dir :
  ex_snap (fst (run (sys0f 0 0 ex_foreign) (OStart ex_c :: ex_ops ++ [OStop])))
  = [ (bs "a.log", 0%N, bs "q");
      (bs "a_r00000.log", 0%N, bs "abcd");
      (bs "a_r00001", 0%N, bs "t");
      (bs "a_r00001.log", 0%N, bs "ef");
      (bs "a_r00001.log.bak", 0%N, bs "w");
      (bs "a_r00001.txt", 0%N, bs "z");
      (bs "a_r00001x.log", 0%N, bs "3");
      (bs "a_r00002.log", 0%N, bs "ghij");
      (bs "a_r1backup.log", 0%N, bs "2");
      (bs "a_r1x.log", 0%N, bs "1");
      (bs "a_r2024-02-29_23-59-58.log", 0%N, bs "4");
      (bs "a_rCURRENT.log", 0%N, bs "k");
      (bs "a_rCURRENT.log.gz", 0%N, bs "s");
      (bs "a_rx.log", 0%N, bs "x");
      (bs "ax_r00001.log", 0%N, bs "v");
      (bs "b.log", 0%N, bs "y") ]
  /\ ex_snap (fst (run (sys0 0 0) (OStart ex_c :: ex_ops ++ [OStop])))
  = [ (bs "a_r00000.log", 0%N, bs "abcd"); (bs "a_r00001.log", 0%N, bs "ef"); (bs "a_r00002.log", 0%N, bs "ghij");
      (bs "a_rCURRENT.log", 0%N, bs "k") ].
Proof. vm_compute. split; reflexivity. Qed.

(* the observations other than the snapshot are literally the same *)
Example foreign_instance_obs :
  filter (fun ob => match ob with ObsSnap _ _ _ => false | _ => true end)
    (snd (run (sys0f 0 0 ex_foreign) (OStart ex_c :: ex_ops ++ [OStop])))
  = [ObsRes 0 false; ObsRes 0 false; ObsRes 0 true; ObsRes 0 false; ObsRes 0 false; ObsRes 0 true; ObsRes 0 false].
Proof. vm_compute. reflexivity. Qed.

(* BEFORE THE REPAIR of the number filter (InfixFilter::Numbrs: "r", a digit and at least one more byte, whatever it is)
   the family test was wider than "r and a number": "a_r1x.log" was a member of the family, although no writer ever
   produces this name.  It could not be read as a number and counted as index 0: the numbering of a writer that found it
   started at 1 (rotated files r00001, r00002, r00003), and a cleanup counted, compressed and deleted it.
   NOW the filter wants "r" and one or more digits and nothing else: these names are foreign (num_member rejects them),
   the run with such a file in the directory is the run without it, the file stays what it was. *)
Example near_miss_not_member :
  num_member ex_c (bs "a_r1x.log") = false
  /\ num_member ex_c (bs "a_r1backup.log") = false
  /\ num_member ex_c (bs "a_r00001x.log") = false
  /\ num_member ex_c (bs "a_r2024-02-29_23-59-58.log") = false
  /\ num_member ex_c (bs "a_r7x.log.gz") = false
  /\ ex_snap (fst (run (sys0f 0 0 [(bs "a_r1x.log", bs "w")]) (OStart ex_c :: ex_ops ++ [OStop])))
     = [ (bs "a_r00000.log", 0%N, bs "abcd"); (bs "a_r00001.log", 0%N, bs "ef"); (bs "a_r00002.log", 0%N, bs "ghij");
         (bs "a_r1x.log", 0%N, bs "w"); (bs "a_rCURRENT.log", 0%N, bs "k") ]
  /\ List.map (strip_obs [bs "a_r1x.log"]) (snd (run (sys0f 0 0 [(bs "a_r1x.log", bs "w")]) (OStart ex_c :: ex_ops ++ [OStop])))
     = snd (run (sys0 0 0) (OStart ex_c :: ex_ops ++ [OStop])).
Proof. vm_compute. repeat split; reflexivity. Qed.

(* What is "not foreign although no writer of this configuration wrote it": every name that does follow the pattern.
   The repaired filter accepts a number of any length: "a_r1.log" (one digit; the old filter wanted three bytes and
   rejected it), "a_r000000000007.log", a stranger's "a_r00005.log" or "a_rCURRENT.log", archives and restart siblings of
   such names.  They are taken for the logger's own: here a_r1.log counts as index 1, the numbering goes on at 2. *)
Example short_number_is_member :
  num_member ex_c (bs "a_r1.log") = true
  /\ num_member ex_c (bs "a_r000000000007.log") = true
  /\ num_member ex_c (bs "a_r1.log.gz") = true
  /\ num_member ex_c (bs "a_r1.restart-0000.log") = true
  /\ num_member ex_c (bs "a_rCURRENT.log") = true
  /\ ex_snap (fst (run (sys0f 0 0 [(bs "a_r1.log", bs "w")]) (OStart ex_c :: ex_ops ++ [OStop])))
     = [ (bs "a_r00002.log", 0%N, bs "abcd"); (bs "a_r00003.log", 0%N, bs "ef"); (bs "a_r00004.log", 0%N, bs "ghij");
         (bs "a_r1.log", 0%N, bs "w"); (bs "a_rCURRENT.log", 0%N, bs "k") ].
Proof. vm_compute. repeat split; reflexivity. Qed.
