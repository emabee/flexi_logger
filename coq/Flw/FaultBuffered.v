(* C19 for the buffered write modes, without rotation: the model does what the specification FaultBufSpec.simb_run says -
   for EVERY fault oracle and EVERY history of log calls, flushes, shutdowns and drops (no rotation, a BufWriter of
   any capacity n, synchronous, no symlink, no start-time part in the name; with and without append; empty records
   and records larger than the buffer included). *)
Require Import FL.Base.Bytes FL.Base.BytesFacts FL.Fs.Fs FL.Fs.FsFacts FL.Names.FileSpec FL.Flw.Model
  FL.Flw.ModelFacts FL.Flw.Run FL.Flw.RunFacts FL.Flw.NumRun FL.Flw.KillFacts FL.Flw.NumKill FL.Flw.FaultFacts
  FL.Flw.FaultRotSpec FL.Flw.FaultRotation FL.Flw.FaultBufSpec.
From Coq Require Import ZifyN ZifyNat ZifyBool.
Open Scope nat_scope.

(* the configurations covered: no rotation, buffer of capacity n, synchronous, no symlink, no start-time part *)
Definition bufcfg (c : config) (n : nat) : Prop :=
  c_rot c = None /\ c_cap c = Some n /\ c_async c = false /\ c_symlink c = false /\ fts (c_spec c) = false.

(* the BufWriter whose buffer holds the records B *)
Definition bwr (n ino : nat) (B : list bytes) : writer := {| wino := ino; wpend := concat B; wcap := Some n |}.

Lemma concat_snoc (B : list bytes) b : concat (B ++ [b]) = concat B ++ b.
Proof. rewrite concat_app. cbn [concat]. rewrite app_nil_r. reflexivity. Qed.

(* ------------------------------------------------------------------ the writer primitives under an oracle *)
(* one flush attempt: delta is what reaches the file *)
Lemma w_flush_b q fl n ino B : quiet q ->
  exists q', w_flush (fw q fl) (bwr n ino B)
             = (negb (fst (wr_pop (concat B) fl)), fw q' (snd (wr_pop (concat B) fl)),
                bwr n ino (if fst (wr_pop (concat B) fl) then B else []))
    /\ same_env q q'
    /\ wfs q' = append_ino (wfs q) ino (if fst (wr_pop (concat B) fl) then [] else concat B).
Proof.
  intros Q. unfold w_flush, bwr. cbn [wino wpend wcap].
  destruct (p_write_fw q fl ino (concat B) Q) as [q' [E [S F]]]. rewrite E.
  exists q'. destruct (fst (wr_pop (concat B) fl)); cbn [negb].
  - split; [reflexivity|]. split; [exact S|]. rewrite append_ino_nil_id. exact F.
  - split; [reflexivity|]. split; [exact S | exact F].
Qed.

(* write_all *)
Lemma w_write_sb q fl n ino F B b : quiet q -> length (concat B) <= n ->
  let out := sb_write n F B b fl in
  exists q' F' B' delta,
    o_st out = BOpen F' B' /\ concat F' = concat F ++ delta /\ length (concat B') <= n
    /\ w_write (fw q fl) (bwr n ino B) b
       = (match o_errs out with [] => true | _ => false end, fw q' (o_fl out), bwr n ino B')
    /\ same_env q q' /\ wfs q' = append_ino (wfs q) ino delta
    /\ (o_errs out = [] \/ o_errs out = [EWrite])
    /\ o_code out = 0%N.
Proof.
  intros Q HB. cbv zeta. unfold w_write, sb_write. cbn [bwr wcap wpend wino].
  destruct (length b <? n - length (concat B)) eqn:E1.
  - (* fits *)
    exists q, F, (B ++ [b]), []. cbn [o_st o_errs o_fl o_code]. rewrite app_nil_r, append_ino_nil_id.
    split; [reflexivity|]. split; [reflexivity|]. split; [rewrite concat_snoc, app_length; lia|].
    split; [unfold bwr; rewrite concat_snoc; reflexivity|]. split; [apply same_env_refl; exact Q|]. auto.
  - destruct (n - length (concat B) <? length b) eqn:E2.
    + (* flush first *)
      destruct (w_flush_b q fl n ino B Q) as [q1 [Ef [S1 F1]]]. rewrite Ef.
      destruct (wr_pop (concat B) fl) as [ff fl1]. cbn [fst snd negb] in *. destruct ff; cbn [negb].
      * (* the flush fails *)
        exists q1, F, B, []. cbn [o_st o_errs o_fl o_code]. rewrite app_nil_r.
        split; [reflexivity|]. split; [reflexivity|]. split; [exact HB|]. split; [reflexivity|]. split; [exact S1|]. auto.
      * cbn [bwr wino wpend wcap concat].
        destruct (n <=? length b) eqn:E3.
        -- (* written directly *)
           destruct (p_write_fw q1 fl1 ino b (proj1 S1)) as [q2 [Ew [S2 F2]]]. rewrite Ew.
           destruct (wr_pop b fl1) as [fw2 fl2]. cbn [fst snd negb] in *. destruct fw2; cbn [negb].
           ++ exists q2, (F ++ B), [], (concat B). cbn [o_st o_errs o_fl o_code concat length].
              split; [reflexivity|]. split; [apply concat_app|]. split; [lia|]. split; [reflexivity|].
              split; [eapply same_env_trans; eassumption|]. split; [rewrite F2; exact F1|]. auto.
           ++ exists q2, ((F ++ B) ++ [] ++ [b]), [], (concat B ++ b). cbn [o_st o_errs o_fl o_code concat length app].
              split; [reflexivity|]. split; [rewrite concat_snoc, concat_app, app_assoc; reflexivity|]. split; [lia|].
              split; [reflexivity|]. split; [eapply same_env_trans; eassumption|].
              split; [rewrite F2, F1, append_ino_app; reflexivity|]. auto.
        -- (* into the empty buffer *)
           exists q1, (F ++ B), ([] ++ [b]), (concat B). cbn [o_st o_errs o_fl o_code concat length app]. rewrite app_nil_r.
           split; [reflexivity|]. split; [apply concat_app|]. split; [lia|].
           split; [unfold bwr; cbn [concat]; rewrite app_nil_r; reflexivity|].
           split; [exact S1|]. split; [exact F1|]. auto.
    + (* no flush: the record fills the buffer exactly, or the buffer is empty and the record is written directly *)
      cbv beta iota. cbn [bwr wino wpend wcap].
      destruct (n <=? length b) eqn:E3.
      * assert (HB0 : concat B = []) by (destruct (concat B); [reflexivity | cbn [length] in *; lia]).
        destruct (p_write_fw q fl ino b Q) as [q2 [Ew [S2 F2]]]. rewrite Ew.
        destruct (wr_pop b fl) as [fw2 fl2]. cbn [fst snd negb] in *. destruct fw2; cbn [negb].
        -- exists q2, F, B, []. cbn [o_st o_errs o_fl o_code]. rewrite app_nil_r, append_ino_nil_id.
           split; [reflexivity|]. split; [reflexivity|]. split; [exact HB|]. split; [reflexivity|]. split; [exact S2|]. auto.
        -- exists q2, (F ++ B ++ [b]), [], b. cbn [o_st o_errs o_fl o_code concat length].
           split; [reflexivity|]. split; [rewrite !concat_app, HB0; cbn [concat app]; rewrite app_nil_r; reflexivity|].
           split; [lia|]. split; [unfold bwr; rewrite HB0; reflexivity|]. split; [exact S2|]. auto.
      * exists q, F, (B ++ [b]), []. cbn [o_st o_errs o_fl o_code]. rewrite app_nil_r, append_ino_nil_id.
        split; [reflexivity|]. split; [reflexivity|]. split; [rewrite concat_snoc, app_length; lia|].
        split; [unfold bwr; rewrite concat_snoc; reflexivity|]. split; [apply same_env_refl; exact Q|]. auto.
Qed.

(* one shutdown of a BufWriter: a flush attempt, whose failure is reported *)
Lemma shutdown_b q fl s o_rot n ino B path : quiet q -> f_inner s = Active o_rot (bwr n ino B) path ->
  exists q' s' o_rot',
    shutdown_state s (fw q fl) = (fw q' (snd (wr_pop (concat B) fl)), s')
    /\ f_inner s' = Active o_rot' (bwr n ino (if fst (wr_pop (concat B) fl) then B else [])) path
    /\ reported q q' (if fst (wr_pop (concat B) fl) then [EFlush] else [])
    /\ wfs q' = append_ino (wfs q) ino (if fst (wr_pop (concat B) fl) then [] else concat B).
Proof.
  intros Q Hs. destruct (w_flush_b q fl n ino B Q) as [q1 [E [S Fs]]].
  unfold shutdown_state. rewrite Hs. unfold drain_acts. rewrite E.
  destruct (fst (wr_pop (concat B) fl)); cbn [negb].
  - rewrite report_fw by apply S. destruct (report_reported EFlush q1 (proj1 S)) as [R Fr].
    eexists (report EFlush q1), _, _. split; [reflexivity|]. split; [reflexivity|].
    split; [apply (reported_trans q q1 _ [] [EFlush]); [apply same_env_reported; exact S | exact R] | rewrite Fr; exact Fs].
  - eexists q1, _, _. split; [reflexivity|]. split; [reflexivity|]. split; [apply same_env_reported; exact S | exact Fs].
Qed.

(* the drop of the writer pair: two shutdowns and the drop of the BufWriter, three attempts to flush the buffer; what the
   third one does not get out is lost without a report.  out is what the specification says *)
Lemma drop_state_b q fl s o_rot n ino F B path : quiet q -> f_inner s = Active o_rot (bwr n ino B) path ->
  let out := sb_stop F B fl in
  exists q3 F' delta,
    o_st out = BStopped F' /\ o_code out = 0%N /\ concat F' = concat F ++ delta
    /\ drop_state s (fw q fl) = fw q3 (o_fl out) /\ reported q q3 (o_errs out) /\ wfs q3 = append_ino (wfs q) ino delta.
Proof.
  intros Q Hs. cbv zeta. unfold drop_state, sb_stop.
  destruct (shutdown_b q fl s o_rot n ino B path Q Hs) as (q1 & s1 & o1 & E1 & Hs1 & R1 & F1). rewrite E1.
  destruct (wr_pop (concat B) fl) as [f1 fl1]. cbn [fst snd] in *. destruct f1; cbn [negb].
  - destruct (shutdown_b q1 fl1 s1 o1 n ino B path (proj1 R1) Hs1) as (q2 & s2 & o2 & E2 & Hs2 & R2 & F2). rewrite E2, Hs2.
    pose proof (reported_trans _ _ _ _ _ R1 R2) as R12. rewrite append_ino_nil_id in F1.
    destruct (wr_pop (concat B) fl1) as [f2 fl2]. cbn [fst snd] in *. destruct f2; cbn [negb].
    + (* the drop of the BufWriter *)
      destruct (w_flush_b q2 fl2 n ino B (proj1 R2)) as [q3 [E3 [S3 F3]]]. unfold w_drop. rewrite E3. cbn [fst snd].
      pose proof (reported_trans _ _ _ _ _ R12 (same_env_reported _ _ S3)) as R. cbn [app] in R.
      rewrite append_ino_nil_id in F2. rewrite F2, F1 in F3.
      destruct (wr_pop (concat B) fl2) as [f3 fl3]. cbn [fst snd] in *.
      destruct f3; cbn [negb o_st o_errs o_fl o_code]; eexists q3, _, _; (split; [reflexivity|]); (split; [reflexivity|]);
        (split; [|split; [reflexivity | split; [exact R | exact F3]]]); [rewrite app_nil_r; reflexivity | apply concat_app].
    + destruct (w_flush_b q2 fl2 n ino [] (proj1 R2)) as [q3 [E3 [S3 F3]]]. unfold w_drop. rewrite E3. cbn [fst snd concat wr_pop] in *.
      pose proof (reported_trans _ _ _ _ _ R12 (same_env_reported _ _ S3)) as R. cbn [app] in R.
      rewrite append_ino_nil_id in F3. rewrite F2, F1 in F3. cbn [o_st o_errs o_fl o_code].
      eexists q3, _, _. split; [reflexivity|]. split; [reflexivity|]. split; [apply concat_app|]. split; [reflexivity|]. split; [exact R | exact F3].
  - destruct (shutdown_b q1 fl1 s1 o1 n ino [] path (proj1 R1) Hs1) as (q2 & s2 & o2 & E2 & Hs2 & R2 & F2). rewrite E2, Hs2.
    cbn [fst snd concat wr_pop] in *. rewrite append_ino_nil_id in F2.
    destruct (w_flush_b q2 fl1 n ino [] (proj1 R2)) as [q3 [E3 [S3 F3]]]. unfold w_drop. rewrite E3. cbn [fst snd concat wr_pop] in *.
    pose proof (reported_trans _ _ _ _ _ (reported_trans _ _ _ _ _ R1 R2) (same_env_reported _ _ S3)) as R. cbn [app] in R.
    rewrite append_ino_nil_id in F3. rewrite F2, F1 in F3. cbn [o_st o_errs o_fl o_code].
    eexists q3, _, _. split; [reflexivity|]. split; [reflexivity|]. split; [apply concat_app|]. split; [reflexivity|]. split; [exact R | exact F3].
Qed.

Section Buf.
Variables (c : config) (n : nat).
Hypothesis Hcfg : bufcfg c n.

(* the state of an initialised writer whose buffer holds B *)
Definition ost (ino : nat) (B : list bytes) (path : bytes) : flw := mkflw c (Active None (bwr n ino B) path).

(* the file of the writer holds the records F *)
Definition OInv (q : world) (ino : nat) (F : list bytes) : Prop :=
  quiet q /\ fs_wf (wfs q) /\ lookup (wfs q) (the_name c) = Some ino /\ content (wfs q) ino = concat F.

Lemma oinv_append q q' ino F F' delta :
  OInv q ino F -> quiet q' -> wfs q' = append_ino (wfs q) ino delta -> concat F' = concat F ++ delta -> OInv q' ino F'.
Proof.
  intros [Q [W [L C]]] Q' Hf Hc. unfold OInv. rewrite Hf. split; [exact Q'|]. split; [apply wf_append; exact W|].
  split; [rewrite lookup_append; exact L|].
  rewrite content_append by (eapply wf_bound; eassumption). rewrite Nat.eqb_refl, C, Hc. reflexivity.
Qed.

Definition BInv (x : sys) (st : bst) (errs : list ecode) (fl : list bool) : Prop :=
  match st with
  | BClosed => exists q, x = mksys (mkflw c Initial) (fw q fl) /\ quiet q /\ fs_wf (wfs q)
                         /\ lookup (wfs q) (the_name c) = None /\ werrs q = errs
  | BOpen F B => exists q ino path, x = mksys (ost ino B path) (fw q fl) /\ OInv q ino F /\ werrs q = errs
                                    /\ length (concat B) <= n
  | BStopped F => exists q, x = {| s_flw := None; s_w := fw q fl; s_tl := []; s_dead := false |} /\ quiet q
                            /\ content_of (wfs q) (the_name c) = concat F /\ werrs q = errs
  end.

(* ---- the log call ---- *)
Lemma wb_open wr path w b :
  write_buffer (mkflw c (Active None wr path)) w b
  = let '(ok, w3, wr') := w_write w wr b in ((if ok then Ok tt else Err), w3, mkflw c (Active None wr' path), false).
Proof.
  unfold write_buffer, mkflw. cbn [f_inner f_cfg mount_next]. destruct (w_write w wr b) as [[ok w3] wr']. destruct ok; reflexivity.
Qed.

Lemma step_sync_b i w o : step (mksys (mkflw c i) w) o = sync_step (mksys (mkflw c i) w) o.
Proof. destruct Hcfg as (_ & _ & Ha & _ & Hts). apply (step_sync_cfg (mksys (mkflw c i) w) o (mkflw c i)); [reflexivity | exact Hts | exact Ha]. Qed.

Lemma step_write_b i w b r w1 i1 rot :
  write_buffer (mkflw c i) w b = (r, w1, mkflw c i1, rot) -> r <> Panic ->
  step (mksys (mkflw c i) w) (OWrite b)
  = (mksys (mkflw c i1) (match r with Err => report EWrite w1 | _ => w1 end), ObsRes 0 rot).
Proof.
  destruct Hcfg as (_ & _ & Ha & _ & Hts).
  exact (step_write_sync (mksys (mkflw c i) w) (mkflw c i) b r w1 (mkflw c i1) rot eq_refl eq_refl Hts Ha eq_refl).
Qed.

Lemma step_write_eq_b i w i' w' b :
  write_buffer (mkflw c i) w b = write_buffer (mkflw c i') w' b ->
  step (mksys (mkflw c i) w) (OWrite b) = step (mksys (mkflw c i') w') (OWrite b).
Proof.
  destruct Hcfg as (_ & _ & Ha & _ & Hts).
  exact (step_write_same (mksys (mkflw c i) w) (mksys (mkflw c i') w') (mkflw c i) (mkflw c i') b
           eq_refl eq_refl eq_refl eq_refl eq_refl Hts Ha eq_refl eq_refl eq_refl).
Qed.

Lemma open_write q fl ino F B path errs b : OInv q ino F -> werrs q = errs -> length (concat B) <= n ->
  let out := sb_write n F B b fl in
  exists x', step (mksys (ost ino B path) (fw q fl)) (OWrite b) = (x', ObsRes (o_code out) false)
             /\ BInv x' (o_st out) (errs ++ o_errs out) (o_fl out).
Proof.
  intros I He HB. cbv zeta.
  destruct (w_write_sb q fl n ino F B b (proj1 I) HB) as [q' [F' [B' [delta [Est [Hc [HB' [Ew [S [Hf [Herr Hcode]]]]]]]]]]].
  cbv zeta in *. rewrite Est, Hcode.
  assert (I' : OInv q' ino F') by (eapply oinv_append; [exact I | apply S | exact Hf | exact Hc]).
  assert (He' : werrs q' = errs) by (destruct S as [_ [_ [_ [E _]]]]; congruence).
  pose proof (wb_open (bwr n ino B) path (fw q fl) b) as Wb. rewrite Ew in Wb.
  destruct Herr as [Hr | Hr]; rewrite Hr in Wb |- *; cbv beta iota zeta in Wb.
  - eexists. split; [unfold ost; rewrite (step_write_b _ _ _ _ _ _ _ Wb) by discriminate; reflexivity|].
    rewrite app_nil_r. exists q', ino, path. auto.
  - eexists. split; [unfold ost; rewrite (step_write_b _ _ _ _ _ _ _ Wb) by discriminate; reflexivity|].
    cbv beta iota. rewrite report_fw by apply I'. destruct (report_reported EWrite q' (proj1 I')) as [R Fs].
    exists (report EWrite q'), ino, path. split; [reflexivity|].
    split; [destruct I' as [_ [W [L C]]]; unfold OInv; rewrite Fs; split; [apply R | auto]|].
    split; [destruct R as [_ [_ [_ [E _]]]]; rewrite E, He'; reflexivity | exact HB'].
Qed.

(* ---- the first log call: the file is opened ---- *)
Lemma wb_closed q fl b : quiet q -> lookup (wfs q) (the_name c) = None ->
  let cf := create_file (wfs q) (the_name c) 0%N (wnow q) in
  write_buffer (mkflw c Initial) (fw q fl) b =
  if fst (pop fl) then (Err, fw q (snd (pop fl)), mkflw c Initial, false)
  else write_buffer (ost (snd cf) [] (the_name c)) (fw (set_fs q (fst cf)) (snd (pop fl))) b.
Proof.
  intros Q L. cbv zeta. destruct Hcfg as (Hrot & Hcap & Ha & Hsym & Hts).
  unfold write_buffer at 1. cbn [mkflw f_inner f_cfg]. unfold initialize. rewrite Hrot, (open_log_file_fresh_fw c q fl None Q Hts Hsym L).
  destruct (fst (pop fl)); [reflexivity|]. cbn [bind fst snd]. rewrite Hcap.
  unfold write_buffer, ost, mkflw, bwr. cbn [f_inner f_cfg concat]. reflexivity.
Qed.

Lemma closed_write x errs fl b : BInv x BClosed errs fl ->
  let out := sb_step n BClosed (OWrite b) fl in
  exists x', step x (OWrite b) = (x', ObsRes (o_code out) false) /\ BInv x' (o_st out) (errs ++ o_errs out) (o_fl out).
Proof.
  intros [q [-> [Q [W [L E]]]]]. cbv zeta. cbn [sb_step].
  pose proof (wb_closed q fl b Q L) as Wb. cbv zeta in Wb.
  destruct (create_file_fresh (wfs q) (the_name c) 0%N (wnow q) W L) as (O1 & O2 & O3).
  set (cf := create_file (wfs q) (the_name c) 0%N (wnow q)) in *.
  destruct (pop fl) as [f fl1]. cbn [fst snd] in Wb. destruct f.
  - (* the open fails *)
    eexists. split; [rewrite (step_write_b _ _ _ _ _ _ _ Wb) by discriminate; reflexivity|].
    cbn [o_st o_errs o_fl]. rewrite report_fw by exact Q. destruct (report_reported EWrite q Q) as [R Fs].
    exists (report EWrite q). split; [reflexivity|]. split; [apply R|]. rewrite Fs. split; [exact W|]. split; [exact L|].
    destruct R as [_ [_ [_ [E' _]]]]. rewrite E', E. reflexivity.
  - rewrite (step_write_eq_b _ _ _ _ _ Wb).
    apply (open_write (set_fs q (fst cf)) fl1 (snd cf) [] [] (the_name c) errs b).
    + split; [apply quiet_set_fs; exact Q|]. cbn [set_fs wfs concat]. auto.
    + exact E.
    + cbn. lia.
Qed.

(* ---- flush, shutdown, drop ---- *)
(* one attempt to flush in terms of the invariant: it fails (f) and everything stays, or the buffer reaches the file *)
Lemma flush_inv q fl ino F B : OInv q ino F ->
  exists q', w_flush (fw q fl) (bwr n ino B)
             = (negb (fst (wr_pop (concat B) fl)), fw q' (snd (wr_pop (concat B) fl)),
                bwr n ino (if fst (wr_pop (concat B) fl) then B else []))
    /\ OInv q' ino (if fst (wr_pop (concat B) fl) then F else F ++ B) /\ werrs q' = werrs q.
Proof.
  intros I. destruct (w_flush_b q fl n ino B (proj1 I)) as [q' [E [S Fs]]]. exists q'. split; [exact E|].
  split; [|destruct S as [_ [_ [_ [Ee _]]]]; exact Ee].
  eapply oinv_append; [exact I | apply S | exact Fs|].
  destruct (fst (wr_pop (concat B) fl)); [rewrite app_nil_r; reflexivity | apply concat_app].
Qed.

Lemma shutdown_inv q fl ino F B path : OInv q ino F ->
  exists q', shutdown_state (ost ino B path) (fw q fl)
             = (fw q' (snd (wr_pop (concat B) fl)), ost ino (if fst (wr_pop (concat B) fl) then B else []) path)
    /\ OInv q' ino (if fst (wr_pop (concat B) fl) then F else F ++ B)
    /\ werrs q' = werrs q ++ (if fst (wr_pop (concat B) fl) then [EFlush] else []).
Proof.
  intros I. destruct (flush_inv q fl ino F B I) as [q1 [E [I1 Ee]]].
  unfold shutdown_state, ost, mkflw. cbn [f_inner]. unfold drain_acts. rewrite E.
  destruct (fst (wr_pop (concat B) fl)); cbn [negb with_inner f_cfg f_poisoned].
  - rewrite report_fw by apply I1. destruct (report_reported EFlush q1 (proj1 I1)) as [R Fs].
    exists (report EFlush q1). split; [reflexivity|].
    split; [destruct I1 as [_ [W [L C]]]; unfold OInv; rewrite Fs; split; [apply R | auto]|].
    destruct R as [_ [_ [_ [E' _]]]]. rewrite E', Ee. reflexivity.
  - exists q1. split; [reflexivity|]. split; [exact I1|]. rewrite app_nil_r. exact Ee.
Qed.

Lemma oinv_content q ino F : OInv q ino F -> content_of (wfs q) (the_name c) = concat F.
Proof. intros [_ [_ [L C]]]. unfold content_of, file_of. rewrite L. exact C. Qed.

Lemma open_flush q fl ino F B path errs : OInv q ino F -> werrs q = errs -> length (concat B) <= n ->
  let out := sb_flush F B fl [] 1 in
  exists x', step (mksys (ost ino B path) (fw q fl)) OFlush = (x', ObsRes (o_code out) false)
             /\ BInv x' (o_st out) (errs ++ o_errs out) (o_fl out).
Proof.
  intros I He HB. cbv zeta. unfold ost at 1. rewrite step_sync_b. unfold sync_step.
  cbn [mksys s_flw s_w s_tl s_dead mkflw f_poisoned]. unfold flush_state, mkflw. cbn [f_inner].
  destruct (flush_inv q fl ino F B I) as [q1 [E [I1 Ee]]]. rewrite E. unfold sb_flush.
  destruct (wr_pop (concat B) fl) as [f fl1]. cbn [fst snd] in *.
  destruct f; cbn [negb o_st o_errs o_fl o_code with_inner f_cfg f_poisoned]; rewrite app_nil_r; eexists; (split; [reflexivity|]).
  - exists q1, ino, path. split; [reflexivity|]. split; [exact I1|]. split; [congruence | exact HB].
  - exists q1, ino, path. split; [reflexivity|]. split; [exact I1|]. split; [congruence | cbn; lia].
Qed.

Lemma open_shutdown q fl ino F B path errs : OInv q ino F -> werrs q = errs -> length (concat B) <= n ->
  let out := sb_flush F B fl [EFlush] 0 in
  exists x', step (mksys (ost ino B path) (fw q fl)) OShutdown = (x', ObsRes (o_code out) false)
             /\ BInv x' (o_st out) (errs ++ o_errs out) (o_fl out).
Proof.
  intros I He HB. cbv zeta. unfold ost at 1. rewrite step_sync_b. unfold sync_step.
  cbn [mksys s_flw s_w s_tl s_dead mkflw f_poisoned]. fold (mkflw c (Active None (bwr n ino B) path)). fold (ost ino B path).
  destruct (shutdown_inv q fl ino F B path I) as [q1 [E [I1 Ee]]]. rewrite E. unfold sb_flush.
  destruct (wr_pop (concat B) fl) as [f fl1]. cbn [fst snd] in *.
  destruct f; cbn [o_st o_errs o_fl o_code]; eexists; (split; [reflexivity|]).
  - exists q1, ino, path. split; [reflexivity|]. split; [exact I1|]. split; [congruence | exact HB].
  - exists q1, ino, path. split; [reflexivity|]. split; [exact I1|]. split; [congruence | cbn; lia].
Qed.

Lemma open_stop q fl ino F B path errs : OInv q ino F -> werrs q = errs ->
  let out := sb_stop F B fl in
  exists x', step (mksys (ost ino B path) (fw q fl)) OStop = (x', ObsRes (o_code out) false)
             /\ BInv x' (o_st out) (errs ++ o_errs out) (o_fl out).
Proof.
  intros I He. cbv zeta. unfold ost at 1. rewrite step_sync_b. unfold sync_step.
  cbn [mksys s_flw s_w s_tl s_dead mkflw f_poisoned]. fold (mkflw c (Active None (bwr n ino B) path)). fold (ost ino B path).
  destruct (drop_state_b q fl (ost ino B path) None n ino F B path (proj1 I) eq_refl) as (q3 & F3 & delta & Est & Ecode & Hc & E & R & Fs).
  rewrite E, Est, Ecode. eexists. split; [reflexivity|].
  exists q3. split; [reflexivity|]. split; [apply R|].
  split; [apply oinv_content with ino; exact (oinv_append q q3 ino F F3 delta I (proj1 R) Fs Hc) | exact (reported_errs _ _ _ _ R He)].
Qed.

(* ---- one operation, whole histories ---- *)
Theorem bstep x st errs fl o : bop_stop o -> BInv x st errs fl ->
  let out := sb_step n st o fl in
  exists x', step x o = (x', ObsRes (o_code out) false) /\ BInv x' (o_st out) (errs ++ o_errs out) (o_fl out).
Proof.
  intros Ho I. cbv zeta. destruct st as [|F B|F].
  - destruct o; try contradiction.
    + apply closed_write. exact I.
    + destruct I as [q [-> R]]. cbn [sb_step o_st o_errs o_fl o_code]. eexists. split; [rewrite step_sync_b; reflexivity|].
      rewrite app_nil_r. exists q. split; [reflexivity | exact R].
    + destruct I as [q [-> R]]. cbn [sb_step o_st o_errs o_fl o_code]. eexists. split; [rewrite step_sync_b; reflexivity|].
      rewrite app_nil_r. exists q. split; [reflexivity | exact R].
    + destruct I as [q [-> [Q [W [L E]]]]]. cbn [sb_step o_st o_errs o_fl o_code]. eexists. split; [rewrite step_sync_b; reflexivity|].
      rewrite app_nil_r. exists q. split; [reflexivity|]. split; [exact Q|]. split; [|exact E].
      unfold content_of, file_of. rewrite L. reflexivity.
  - destruct I as [q [ino [path [-> [I [E HB]]]]]].
    destruct o; try contradiction; cbn [sb_step]; [apply open_write | apply open_flush | apply open_shutdown | apply open_stop]; assumption.
  - destruct I as [q [-> R]]. cbn [sb_step o_st o_errs o_fl o_code]. rewrite app_nil_r.
    destruct o; try contradiction; (eexists; split; [reflexivity|]; exists q; split; [reflexivity | exact R]).
Qed.

Theorem brun : forall ops x st errs fl, Forall bop_stop ops -> BInv x st errs fl ->
  let '(st', e, fl', codes, _) := simb_run n st fl ops in
  exists x', run x ops = (x', List.map (fun k => ObsRes k false) codes) /\ BInv x' st' (errs ++ e) fl'.
Proof.
  induction ops as [|o rest IH]; intros x st errs fl Hb I; cbn [simb_run run].
  - exists x. rewrite app_nil_r. split; [reflexivity | exact I].
  - inversion Hb as [|o' r' Ho Hr]; subst o' r'.
    destruct (bstep x st errs fl o Ho I) as [x1 [S1 I1]]. cbv zeta in S1, I1.
    specialize (IH x1 _ _ _ Hr I1).
    destruct (simb_run n (o_st (sb_step n st o fl)) (o_fl (sb_step n st o fl)) rest) as [[[[st2 e2] fl2] c2] l2].
    destruct IH as [x2 [R2 I2]]. exists x2. rewrite S1, R2. cbn [List.map]. split; [reflexivity|].
    rewrite app_assoc. exact I2.
Qed.

Definition pend_of (x : sys) : option bytes :=
  match s_flw x with
  | Some s => match f_inner s with Active _ wr _ => Some (wpend wr) | Initial => None end
  | None => None
  end.
Definition pend_bytes (x : sys) : bytes := match pend_of x with Some p => p | None => [] end.

Lemma binv_final x st errs fl : BInv x st errs fl ->
  content_of (wfs (s_w x)) (the_name c) = concat (st_file st)
  /\ pend_of x = (match st with BOpen _ B => Some (concat B) | _ => None end)
  /\ werrs (s_w x) = errs /\ wfaults (s_w x) = fl.
Proof.
  destruct st as [|F B|F]; cbn [BInv st_file].
  - intros [q [-> [Q [W [L E]]]]]. cbn [mksys s_w fw set_faults wfs werrs wfaults].
    unfold content_of, file_of. rewrite L. auto.
  - intros [q [ino [path [-> [I [E HB]]]]]]. cbn [mksys s_w fw set_faults wfs werrs wfaults].
    rewrite (oinv_content q ino F I). auto.
  - intros [q [-> [Q [C E]]]]. cbn [s_w fw set_faults wfs werrs wfaults]. auto.
Qed.

Lemma binv_start t0 off fl : BInv (fst (step (fsys t0 off fl) (OStart c))) BClosed [] fl.
Proof.
  exists (world0 t0 off). split; [reflexivity|]. split; [split; reflexivity|]. split; [apply wf_empty|]. split; reflexivity.
Qed.

End Buf.

(* For every fault oracle fl and every history ops of log calls, flushes, shutdowns and drops of a buffered writer
   without rotation: after  OStart c :: ops  from the empty directory with the oracle fl, the log file holds exactly the
   records simb_run lists as written, the BufWriter holds exactly those it lists as buffered (no writer: after the drop,
   or before the first successful open), the error channel holds exactly the errors it lists (codes, order), the oracle
   is consumed as it says, and every call returns what it says: 0 for every log call, shutdown and drop whatever
   fails (no panic, no error result); 1 for a flush() whose write fails (nothing is put on the error channel then);
   3 for calls after the drop. *)
Theorem faults_buffered c n t0 off fl ops :
  bufcfg c n -> Forall bop_stop ops ->
  let r := run (fsys t0 off fl) (OStart c :: ops) in
  let '(st, errs, rest, codes, _) := simb_run n BClosed fl ops in
  content_of (wfs (s_w (fst r))) (the_name c) = concat (st_file st)
  /\ pend_of (fst r) = (match st with BOpen _ B => Some (concat B) | _ => None end)
  /\ werrs (s_w (fst r)) = errs
  /\ wfaults (s_w (fst r)) = rest
  /\ snd r = ObsRes 0 false :: List.map (fun k => ObsRes k false) codes.
Proof.
  intros Hcfg Hb. cbv zeta. rewrite run_start.
  pose proof (brun c n Hcfg ops _ _ _ _ Hb (binv_start c n t0 off fl)) as R.
  destruct (simb_run n BClosed fl ops) as [[[[st e] fl'] codes] lost].
  destruct R as [x' [R I]]. rewrite R. cbn [fst snd app] in *.
  destruct (binv_final c n x' st e fl' I) as [H1 [H2 [H3 H4]]]. auto.
Qed.
Print Assumptions faults_buffered.

(* the same in the form (file content, buffer content, error list, remaining oracle) *)
Corollary faults_buffered_simb c n t0 off fl ops :
  bufcfg c n -> Forall bop_stop ops ->
  let x := fst (run (fsys t0 off fl) (OStart c :: ops)) in
  (content_of (wfs (s_w x)) (the_name c), pend_bytes x, werrs (s_w x), wfaults (s_w x)) = simb n fl ops.
Proof.
  intros Hcfg Hb. cbv zeta. pose proof (faults_buffered c n t0 off fl ops Hcfg Hb) as T. cbv zeta in T. unfold simb.
  destruct (simb_run n BClosed fl ops) as [[[[st e] fl'] codes] lost]. destruct T as [H1 [H2 [H3 [H4 _]]]].
  unfold pend_bytes. rewrite H1, H2, H3, H4. destruct st; reflexivity.
Qed.

(* every log call returns normally *)
Corollary buffered_calls_return c n t0 off fl ops :
  bufcfg c n -> Forall bop_stop ops ->
  forall i b, nth_error ops i = Some (OWrite b) ->
    exists k, nth_error (snd (run (fsys t0 off fl) (OStart c :: ops))) (S i) = Some (ObsRes k false) /\ (k = 0%N \/ k = 3%N).
Proof.
  intros Hcfg Hb i b Hi. pose proof (faults_buffered c n t0 off fl ops Hcfg Hb) as T. cbv zeta in T.
  pose proof (simb_trace n ops BClosed fl Hb) as Tr.
  destruct (simb_run n BClosed fl ops) as [[[[st e] fl'] codes] lost]. destruct T as [_ [_ [_ [_ ->]]]].
  cbv zeta in Tr. destruct Tr as [T1 [_ [_ [_ [T5 _]]]]]. cbn [nth_error]. rewrite nth_error_map.
  assert (Hx : exists x, nth_error (btrace n BClosed fl ops) i = Some x /\ t_op x = OWrite b).
  { rewrite <- T1 in Hi. rewrite nth_error_map in Hi. destruct (nth_error (btrace n BClosed fl ops) i) as [x|]; [|discriminate].
    injection Hi as Hi. eauto. }
  destruct Hx as [x [Hx Hop]]. rewrite T5, nth_error_map, Hx. cbn [option_map]. eexists. split; [reflexivity|].
  (* the code of a log call *)
  assert (G : forall ops' st' fl0, In x (btrace n st' fl0 ops') -> o_code (t_out x) = 0%N \/ o_code (t_out x) = 3%N).
  { induction ops' as [|o r IH]; intros st' fl0; cbn [btrace]; [intros []|]. intros [<-|Hin]; [|eapply IH; exact Hin].
    cbn [t_out t_op] in *. subst o. destruct st' as [|F B|F]; cbn [sb_step].
    - destruct (pop fl0) as [f fl1]. destruct f; [left; reflexivity|].
      destruct (w_write_sb (world0 0 0) fl1 n 0 [] [] b (conj eq_refl eq_refl)) as [_ [_ [_ [_ [_ [_ [_ [_ [_ [_ [_ H]]]]]]]]]]]; [cbn; lia|].
      left. exact H.
    - destruct (Nat.le_gt_cases (length (concat B)) n) as [HB|HB].
      + destruct (w_write_sb (world0 0 0) fl0 n 0 F B b (conj eq_refl eq_refl) HB) as [_ [_ [_ [_ [_ [_ [_ [_ [_ [_ [_ H]]]]]]]]]]].
        left. exact H.
      + left. unfold sb_write.
        repeat match goal with
               | |- context [if ?c then _ else _] => destruct c
               | |- context [let '(_, _) := ?p in _] => destruct p
               end; reflexivity.
    - right. reflexivity. }
  apply (G ops BClosed fl). eapply nth_error_In. exact Hx.
Qed.

(* The loss is bounded and announced.  A history of log calls, flushes and shutdowns ended by the drop of the
   writer.  With t the list of operations as the specification traces them (operation, state before, outcome, oracle
   entries consumed): the file holds the concatenation of `kept`, a subsequence of the records (in order, nothing
   duplicated); exactly the other records are lost (counted); the error channel holds the reports of the operations,
   the consumed entries partition the consumed part of the oracle; and for every operation (entry_ok): it reports at
   most as many errors as calls of it failed, without a failing call it reports and loses nothing and returns 0,
   whatever it loses it has reported, a record it loses is its own incoming record (log call) or was in the buffer
   when the last attempt of the drop failed, and what was in the file before is still there.  The number of
   operations that lose something is at most the number of reports. *)
Theorem buffered_loss_bounded c n t0 off fl ops :
  bufcfg c n -> Forall bop ops ->
  let x := fst (run (fsys t0 off fl) (OStart c :: ops ++ [OStop])) in
  let t := btrace n BClosed fl (ops ++ [OStop]) in
  let lost := concat (List.map (fun e => o_lost (t_out e)) t) in
  exists kept,
    content_of (wfs (s_w x)) (the_name c) = concat kept
    /\ Subseq kept (recs_of ops)
    /\ length (recs_of ops) = length kept + length lost
    /\ List.map t_op t = ops ++ [OStop]
    /\ werrs (s_w x) = concat (List.map (fun e => o_errs (t_out e)) t)
    /\ fl = concat (List.map t_usedb t) ++ wfaults (s_w x)
    /\ Forall entry_ok t
    /\ length (filter loses t) <= length (werrs (s_w x)).
Proof.
  intros Hcfg Hb. cbv zeta.
  assert (Hbs : Forall bop_stop (ops ++ [OStop])).
  { apply Forall_app. split; [|constructor; [exact I | constructor]].
    eapply Forall_impl; [|exact Hb]. intros o Ho. destruct o; try contradiction; exact I. }
  pose proof (faults_buffered c n t0 off fl (ops ++ [OStop]) Hcfg Hbs) as T. cbv zeta in T.
  pose proof (buffered_loss_bounded_spec n fl ops Hb) as L.
  destruct (simb_run n BClosed fl (ops ++ [OStop])) as [[[[st e] fl'] codes] lost]. cbv zeta in L.
  destruct T as [H1 [_ [H3 [H4 _]]]]. destruct L as [kept [-> [L1 [L2 [L3 [L4 [L5 [L6 [L7 L8]]]]]]]]].
  exists kept. rewrite H1, H3, H4, <- L5, <- L4. cbn [st_file]. auto 10.
Qed.
Print Assumptions buffered_loss_bounded.

(* before the drop: the records in the file followed by those in the buffer are the records of the history without the
   lost ones, in order; each lost record is the incoming record of a log call and is announced by one EWrite *)
Theorem buffered_accepted c n t0 off fl ops :
  bufcfg c n -> Forall bop ops ->
  let x := fst (run (fsys t0 off fl) (OStart c :: ops)) in
  exists F B,
    content_of (wfs (s_w x)) (the_name c) = concat F /\ pend_bytes x = concat B
    /\ Subseq (F ++ B) (recs_of ops)
    /\ length (recs_of ops) = length (F ++ B) + nlost (werrs (s_w x))
    /\ nlost (werrs (s_w x)) <= length (werrs (s_w x)).
Proof.
  intros Hcfg Hb. cbv zeta.
  assert (Hbs : Forall bop_stop ops) by (eapply Forall_impl; [|exact Hb]; intros o Ho; destruct o; try contradiction; exact I).
  pose proof (faults_buffered c n t0 off fl ops Hcfg Hbs) as T. cbv zeta in T.
  pose proof (simb_run_records n ops BClosed fl I Hb) as R.
  destruct (simb_run n BClosed fl ops) as [[[[st e] fl'] codes] lost].
  destruct T as [H1 [H2 [H3 _]]]. destruct R as [_ [kept [used [add [K1 [K2 [K3 [K4 [K5 _]]]]]]]]].
  exists (st_file st), (st_buf st). rewrite H1, H3. split; [reflexivity|].
  split; [unfold pend_bytes; rewrite H2; destruct st; reflexivity|].
  unfold st_all in K2. cbn [st_file st_buf app] in K2. subst kept. split; [exact K1|]. split; [rewrite <- K5; exact K4 | apply nlost_le].
Qed.
Print Assumptions buffered_accepted.

(* Recovery.  A history ops1 after which the rest of the oracle holds no failure any more, continued by any ops2
   and a final flush / shutdown / drop: nothing more is reported, and the file holds what it held after ops1, then what
   the buffer held after ops1, then ALL records of ops2, in order; the buffer is empty *)
Theorem buffered_recovery_run c n t0 off fl ops1 ops2 f :
  bufcfg c n -> Forall bop ops1 -> Forall bop ops2 -> final_op f ->
  let x1 := fst (run (fsys t0 off fl) (OStart c :: ops1)) in
  let x2 := fst (run (fsys t0 off fl) (OStart c :: ops1 ++ ops2 ++ [f])) in
  all_false (wfaults (s_w x1)) ->
  content_of (wfs (s_w x2)) (the_name c)
    = content_of (wfs (s_w x1)) (the_name c) ++ pend_bytes x1 ++ concat (recs_of ops2)
  /\ pend_bytes x2 = []
  /\ werrs (s_w x2) = werrs (s_w x1)
  /\ all_false (wfaults (s_w x2)).
Proof.
  intros Hcfg H1 H2 Hfin. cbv zeta.
  assert (Up : forall l, Forall bop l -> Forall bop_stop l)
    by (intros l Hl; eapply Forall_impl; [|exact Hl]; intros o Ho; destruct o; try contradiction; exact I).
  assert (Hb2 : Forall bop_stop (ops1 ++ ops2 ++ [f])).
  { apply Forall_app. split; [apply Up; exact H1|]. apply Forall_app. split; [apply Up; exact H2|].
    constructor; [destruct Hfin as [->|[->| ->]]; exact I | constructor]. }
  pose proof (faults_buffered c n t0 off fl ops1 Hcfg (Up _ H1)) as T1. cbv zeta in T1.
  pose proof (faults_buffered c n t0 off fl _ Hcfg Hb2) as T2. cbv zeta in T2.
  pose proof (buffered_recovery n fl ops1 ops2 f H1 H2 Hfin) as R.
  destruct (simb_run n BClosed fl ops1) as [[[[st1 e1] fl1] c1] l1].
  destruct (simb_run n BClosed fl (ops1 ++ ops2 ++ [f])) as [[[[st2 e2] fl2] c2] l2].
  destruct T1 as [A1 [A2 [A3 [A4 _]]]]. destruct T2 as [B1 [B2 [B3 [B4 _]]]].
  rewrite A4. intros Hf. destruct (R Hf) as [-> [_ [Rf [Rb Rfl]]]].
  assert (P1 : pend_bytes (fst (run (fsys t0 off fl) (OStart c :: ops1))) = concat (st_buf st1))
    by (unfold pend_bytes; rewrite A2; destruct st1; reflexivity).
  assert (P2 : pend_bytes (fst (run (fsys t0 off fl) (OStart c :: ops1 ++ ops2 ++ [f]))) = concat (st_buf st2))
    by (unfold pend_bytes; rewrite B2; destruct st2; reflexivity).
  rewrite B1, A1, P1, P2, B3, A3, B4, Rf, Rb. unfold st_all. rewrite !concat_app, <- app_assoc. auto.
Qed.
Print Assumptions buffered_recovery_run.

(* without failures nothing is lost and nothing is reported: after the drop the file holds all records *)
Corollary buffered_no_faults c n t0 off ops :
  bufcfg c n -> Forall bop ops ->
  let x := fst (run (fsys t0 off []) (OStart c :: ops ++ [OStop])) in
  content_of (wfs (s_w x)) (the_name c) = concat (recs_of ops) /\ werrs (s_w x) = [].
Proof.
  intros Hcfg Hb. cbv zeta.
  pose proof (buffered_recovery_run c n t0 off [] [] ops OStop Hcfg (Forall_nil _) Hb (or_intror (or_intror eq_refl))) as R.
  cbv zeta in R. cbn [app] in R. destruct R as [R1 [_ [R3 _]]]; [intros f []|]. rewrite R1, R3. split; reflexivity.
Qed.
Print Assumptions buffered_no_faults.

(* ------------------------------------------------------------------ the statement, computed on examples *)
Import String.StringSyntax.
Open Scope string_scope.
Definition bx_cfg (app : bool) (n : nat) : config :=
  {| c_spec := {| fbase := bs "app"; fdisc := None; fts := false; fsfx := Some (bs "log") |};
     c_append := app; c_cap := Some n; c_rot := None; c_utc := false;
     c_symlink := false; c_bg := false; c_async := false; c_start := None |}.
Lemma bx_bufcfg app n : bufcfg (bx_cfg app n) n.
Proof. repeat split. Qed.

Definition obs_code (o : obs) : N := match o with ObsRes k _ => k | _ => 9%N end.
(* the run: file content, buffer content (None: no writer), error channel, rest of the oracle, result codes *)
Definition bx_run (app : bool) (n : nat) (fl : list bool) (ops : list op)
  : bytes * option bytes * list ecode * list bool * list N :=
  let r := run (fsys 0 0 fl) (OStart (bx_cfg app n) :: ops) in
  (content_of (wfs (s_w (fst r))) (the_name (bx_cfg app n)), pend_of (fst r), werrs (s_w (fst r)), wfaults (s_w (fst r)),
   List.map obs_code (tl (snd r))).
(* the specification, with the lost records *)
Definition bx_sim (n : nat) (fl : list bool) (ops : list op)
  : bytes * option bytes * list ecode * list bool * list N * list bytes :=
  let '(st, e, rest, codes, lost) := simb_run n BClosed fl ops in
  (concat (st_file st), match st with BOpen _ B => Some (concat B) | _ => None end, e, rest, codes, lost).

Definition W (s : String.string) : op := OWrite (bs s).

(* capacity 5.  "abc" and "de" fill the buffer; "fg" does not fit: the flush fails (second oracle entry; the first is the
   open): "fg" is lost and reported (EWrite), the log call returns 0, the buffer keeps "abcde"; "h" does not fit either:
   now the flush succeeds, "abcde" is in the file, "h" in the buffer *)
Example bx_flush_in_write_fails :
  bx_run false 5 [F; T] [W "abc"; W "de"; W "fg"; W "h"] = (bs "abcde", Some (bs "h"), [EWrite], [], [0; 0; 0; 0]%N)
  /\ bx_sim 5 [F; T] [W "abc"; W "de"; W "fg"; W "h"] = (bs "abcde", Some (bs "h"), [EWrite], [], [0; 0; 0; 0]%N, [bs "fg"]).
Proof. split; vm_compute; reflexivity. Qed.
(* as long as the flush fails every record that does not fit is lost (each one reported); a record that still fits is
   accepted; the buffered records reach the file as soon as a flush succeeds, before the later ones *)
Example bx_flush_keeps_failing :
  bx_run false 5 [F; T; T; F] [W "abc"; W "d"; W "fg"; W "hi"; W "j"; W "kl"; OStop]
  = (bs "abcdjkl", None, [EWrite; EWrite], [], [0; 0; 0; 0; 0; 0; 0]%N)
  /\ bx_sim 5 [F; T; T; F] [W "abc"; W "d"; W "fg"; W "hi"; W "j"; W "kl"; OStop]
     = (bs "abcdjkl", None, [EWrite; EWrite], [], [0; 0; 0; 0; 0; 0; 0]%N, [bs "fg"; bs "hi"]).
Proof. split; vm_compute; reflexivity. Qed.
(* a record of at least the capacity is written directly after the flush: when that write fails, it is lost *)
Example bx_large_record :
  bx_run false 3 [F; F; T] [W "ab"; W "cdefg"; W "h"; OStop] = (bs "abh", None, [EWrite], [], [0; 0; 0; 0]%N)
  /\ bx_sim 3 [F; F; T] [W "ab"; W "cdefg"; W "h"; OStop] = (bs "abh", None, [EWrite], [], [0; 0; 0; 0]%N, [bs "cdefg"]).
Proof. split; vm_compute; reflexivity. Qed.
(* flush(): a failure is the RESULT of the call (1) and is NOT put on the error channel; nothing is lost *)
Example bx_oflush_fails :
  bx_run false 5 [F; T] [W "abc"; OFlush; W "d"; OFlush] = (bs "abcd", Some [], [], [], [0; 1; 0; 0]%N)
  /\ bx_sim 5 [F; T] [W "abc"; OFlush; W "d"; OFlush] = (bs "abcd", Some [], [], [], [0; 1; 0; 0]%N, []).
Proof. split; vm_compute; reflexivity. Qed.
(* the drop: one or two failing attempts are reported (EFlush) although nothing is lost ... *)
Example bx_stop_reports_without_loss :
  bx_run false 5 [F; T] [W "abc"; W "d"; OStop] = (bs "abcd", None, [EFlush], [], [0; 0; 0]%N)
  /\ bx_run false 5 [F; T; T] [W "abc"; W "d"; OStop] = (bs "abcd", None, [EFlush; EFlush], [], [0; 0; 0]%N)
  /\ bx_sim 5 [F; T; T] [W "abc"; W "d"; OStop] = (bs "abcd", None, [EFlush; EFlush], [], [0; 0; 0]%N, []).
Proof. repeat split; vm_compute; reflexivity. Qed.
(* ... three failing attempts lose the WHOLE buffer: here five records for two reports.  So the statement of the direct
   mode (FaultFacts.lost_only_failed, FaultRotSpec.loss_is_reported: "the number of missing records is the number of
   reported errors") is FALSE for a buffered writer; what holds is "every operation that loses something reports
   something" (buffered_loss_bounded) *)
Example bx_stop_loses_buffer :
  bx_run false 100 [F; T; T; T] [W "a"; W "b"; W "c"; W "d"; W "e"; OStop]
  = ([], None, [EFlush; EFlush], [], [0; 0; 0; 0; 0; 0]%N)
  /\ bx_sim 100 [F; T; T; T] [W "a"; W "b"; W "c"; W "d"; W "e"; OStop]
     = ([], None, [EFlush; EFlush], [], [0; 0; 0; 0; 0; 0]%N, [bs "a"; bs "b"; bs "c"; bs "d"; bs "e"]).
Proof. split; vm_compute; reflexivity. Qed.
Example bx_more_lost_than_reported :
  let '(_, _, errs, _, _, lost) := bx_sim 100 [F; T; T; T] [W "a"; W "b"; W "c"; W "d"; W "e"; OStop] in
  (length errs < length lost)%nat.
Proof. vm_compute. lia. Qed.
(* shutdown() without drop: reported, returns 0, nothing lost; a second shutdown writes the buffer *)
Example bx_shutdown :
  bx_run false 5 [F; T] [W "abc"; OShutdown; OShutdown] = (bs "abc", Some [], [EFlush], [], [0; 0; 0]%N).
Proof. vm_compute; reflexivity. Qed.
(* the open fails: the record is lost and reported, the next log call opens again; calls after the drop return 3 *)
Example bx_open_fails :
  bx_run true 4 [T; F] [OFlush; W "ab"; W "cd"; OStop; W "x"; OFlush] = (bs "cd", None, [EWrite], [], [0; 0; 0; 0; 3; 3]%N).
Proof. vm_compute; reflexivity. Qed.

(* run and specification agree on ALL fault oracles up to length 8 (511 oracles), for five settings: capacities 5, 3,
   0 (everything is written directly), 4 and 2, with and without append, empty records, records larger than the
   buffer, flushes, shutdowns, the drop, and calls after the drop *)
Definition opt_eqb (a b : option bytes) : bool :=
  match a, b with Some x, Some y => beq x y | None, None => true | _, _ => false end.
Definition agreeb (app : bool) (n : nat) (ops : list op) (fl : list bool) : bool :=
  let '(d1, p1, e1, f1, c1) := bx_run app n fl ops in
  let '(d2, p2, e2, f2, c2, _) := bx_sim n fl ops in
  beq d1 d2 && opt_eqb p1 p2 && leqb ec_eqb e1 e2 && leqb Bool.eqb f1 f2 && leqb N.eqb c1 c2.
Lemma opt_eqb_refl p : opt_eqb p p = true.
Proof. destruct p; [apply beq_refl | reflexivity]. Qed.

(* run and specification agree on every oracle: this is faults_buffered *)
Theorem agreeb_holds app n ops fl : Forall bop_stop ops -> agreeb app n ops fl = true.
Proof.
  intros Hb. pose proof (faults_buffered (bx_cfg app n) n 0 0 fl ops (bx_bufcfg app n) Hb) as Fr. cbv zeta in Fr.
  unfold agreeb, bx_run, bx_sim. destruct (simb_run n BClosed fl ops) as [[[[st e] rest] codes] lost].
  destruct Fr as [H1 [H2 [H3 [H4 H5]]]]. rewrite H1, H2, H3, H4, H5. cbn [tl]. rewrite map_map. cbn [obs_code]. rewrite map_id.
  rewrite beq_refl, opt_eqb_refl, (leqb_refl ec_eqb ec_eqb_refl), (leqb_refl Bool.eqb Bool.eqb_reflx), (leqb_refl N.eqb N.eqb_refl).
  reflexivity.
Qed.

Example bx_agree_all :
  forallb (agreeb false 5 [W "abc"; W "de"; W "fg"; OFlush; W "hi"; W "j"; W "klmnopq"; OShutdown; W "r"; OStop]) (all_lists 8) = true
  /\ forallb (agreeb true 3 [W "ab"; W ""; W "cdefg"; W "h"; OFlush; W "ij"; W "kl"; OStop; W "x"; OFlush]) (all_lists 8) = true
  /\ forallb (agreeb false 0 [W "a"; OFlush; W ""; W "bc"; OStop]) (all_lists 8) = true
  /\ forallb (agreeb false 4 [W "ab"; W "cd"; W "ef"; W "gh"; W "ij"; W "k"; OStop]) (all_lists 8) = true
  /\ forallb (agreeb true 2 [OStop; W "a"]) (all_lists 8) = true.
Proof. repeat apply conj; apply forallb_forall; intros fl _; apply agreeb_holds; repeat constructor. Qed.
