(* TimestampsDirect naming: every history of writes, flushes, triggers and (non-negative) clock ticks refines the abstract
   reader's view (closed files, current content).  The abstract side (aview, a_step, a_run, s_run, flat, written) is the one
   of Numbers naming (NumRun.v); the concrete side additionally carries the keys (second, position) of ALL files, the
   last key being the one of the file that is written.  As in TsRun.v a writer that has written is given by named
   components (dstate), on which one operation acts as the function d_next. *)
Require Import FL.Base.Bytes FL.Base.BytesFacts FL.Base.PathName FL.Fs.Fs FL.Fs.FsFacts FL.Time.Civil FL.Time.TsFormat
  FL.Names.FileSpec FL.Names.NamesFacts FL.Flw.Model FL.Flw.ModelFacts FL.Flw.NumFs FL.Flw.NumInv FL.Flw.Run FL.Flw.RunFacts
  FL.Flw.QuietFacts FL.Flw.NumRun FL.Flw.TsCal FL.Flw.TsTime FL.Flw.TsNames FL.Flw.TsInv FL.Flw.TsRun FL.Flw.TsdInv.
Open Scope nat_scope.

(* n bounds the number of closed files (it grows by at most one with every operation) *)
Definition RelTd (c : config) (crit : criterion) (e lo : Z) (n : nat) (x : sys) (a : aview) : Prop :=
  s_tl x = [] /\ wacts (s_w x) = 0 /\
  match a with
  | None => s_flw x = Some (new_flw c) /\ quiet (s_w x) /\ names (wfs (s_w x)) = [] /\ inodes (wfs (s_w x)) = []
            /\ eoff c (s_w x) = e /\ (lo <= wnow (s_w x))%Z
  | Some (closed, cur) =>
    exists keys wr roll, s_flw x = Some (st_tsd c e (nth (length closed) keys kd) roll wr)
      /\ TsdInv c e lo (s_w x) wr keys closed
      /\ cur_view (s_w x) wr = cur /\ length closed <= n
      /\ roll_size_ok roll (length cur) /\ (forall m, crit = CSize m -> exists k, roll = RSize m k)
  end.

(* the clock may advance under the invariant *)
Lemma tsdinv_tick c e lo w wr keys closed dt : TsdInv c e lo w wr keys closed -> (0 <= dt)%Z ->
  TsdInv c e lo (set_now w (wnow w + dt)%Z) wr keys closed.
Proof.
  intros [Q W Hnd Hoff Hlen Hc Hcp Hcl Hon Hko Hrg Hwr Hcap] Hdt. constructor; try assumption.
  intros k Ik. specialize (Hrg k Ik). cbn [set_now wnow]. lia.
Qed.

(* the keys of all files, the closed files, the content of the file being written and the roll state; what one basic
   operation makes of them - and what it reports - is a function of them and of the clock *)
Definition dstate : Type := list key * list bytes * bytes * roll_state.

Definition ActD (c : config) (e lo : Z) (s : flw) (w : world) (d : dstate) : Prop :=
  let '(keys, closed, cur, roll) := d in
  exists wr, s = st_tsd c e (nth (length closed) keys kd) roll wr /\ TsdInv c e lo w wr keys closed /\ cur_view w wr = cur.

Definition d_next (w : world) (d : dstate) (o : op) : dstate :=
  let '(keys, closed, cur, roll) := d in
  let rotated := (keys ++ [(wnow w, count (wnow w) keys)], closed ++ [cur]) in
  match o with
  | OWrite b | OPlain b =>
    if rotation_necessary w roll
    then (rotated, b, increase_size (reset_roll roll (wnow w)) (N.of_nat (length b)))
    else (keys, closed, cur ++ b, increase_size roll (N.of_nat (length b)))
  | OTrigger => (rotated, [], reset_roll roll (wnow w))
  | _ => d
  end.

Lemma act_write_tsd c crit e lo hi s w keys closed cur roll b :
  tsdcfg c crit -> tag_ok c -> years_ok e lo hi -> ActD c e lo s w (keys, closed, cur, roll) ->
  (wnow w <= hi)%Z -> (N.of_nat (length keys) <= usize_max)%N ->
  exists w' s', write_buffer s w b = (Ok tt, w', s', rotation_necessary w roll) /\ same_env w w'
    /\ ActD c e lo s' w' (d_next w (keys, closed, cur, roll) (OWrite b)).
Proof.
  intros Hcfg T Y [wr [-> [I V]]] Hhi Hmax.
  destruct (write_buffer_tsd c crit e lo hi w wr keys closed roll b Hcfg T Y I Hhi Hmax) as [w' [wr' [E [I' [S' V']]]]].
  eexists w', _. split; [exact E|]. split; [exact S'|]. cbn [d_next]. rewrite V in I', V'.
  pose proof (td_len _ _ _ _ _ _ _ I) as Hlen.
  destruct (rotation_necessary w roll); exists wr'.
  - rewrite nth_snoc_last by (rewrite app_length; cbn [length]; lia). split; [reflexivity|]. split; [exact I' | exact V'].
  - split; [reflexivity|]. split; [exact I' | exact V'].
Qed.

Lemma act_step_tsd c crit e lo hi x s keys closed cur roll o :
  tsdcfg c crit -> tag_ok c -> years_ok e lo hi -> s_flw x = Some s -> ActD c e lo s (s_w x) (keys, closed, cur, roll) ->
  s_tl x = [] -> basic_op o -> tick_ok o -> (wnow (s_w x) <= hi)%Z -> (N.of_nat (length keys) <= usize_max)%N ->
  exists x' s', step x o = (x', d_obs (s_w x) roll o) /\ s_flw x' = Some s'
    /\ ActD c e lo s' (s_w x') (d_next (s_w x) (keys, closed, cur, roll) o) /\ s_tl x' = []
    /\ wnow (s_w x') = (wnow (s_w x) + dt_of o)%Z /\ woff (s_w x') = woff (s_w x) /\ wacts (s_w x') = wacts (s_w x).
Proof.
  intros Hcfg T Y Es A Ht Hb Htk Hhi Hmax.
  assert (Hs : f_cfg s = c /\ f_poisoned s = false) by (destruct A as [wr [-> _]]; split; reflexivity).
  destruct Hs as [Ec Hp].
  rewrite (step_sync_cfg x o s Es) by (rewrite Ec; apply Hcfg).
  destruct o; try contradiction; cbn [sync_step dt_of d_obs].
  - (* OWrite *)
    destruct (act_write_tsd c crit e lo hi s (s_w x) keys closed cur roll b Hcfg T Y A Hhi Hmax) as [w' [s' [E [S' A']]]].
    rewrite Es, Hp, Ht. cbn [app]. rewrite E. eexists _, s'. split; [reflexivity|]. cbn [s_flw s_w s_tl].
    split; [reflexivity|]. split; [exact A'|]. split; [reflexivity | exact (same_env_step _ _ S')].
  - (* OPlain *)
    destruct (act_write_tsd c crit e lo hi s (s_w x) keys closed cur roll b Hcfg T Y A Hhi Hmax) as [w' [s' [E [S' A']]]].
    rewrite Es, Hp, E. eexists _, s'. split; [reflexivity|]. cbn [s_flw s_w s_tl].
    split; [reflexivity|]. split; [exact A'|]. split; [exact Ht | exact (same_env_step _ _ S')].
  - (* OFlush *)
    rewrite Es, Hp. destruct A as [wr [-> [I V]]].
    destruct (flush_active_tsd c e lo (s_w x) wr keys closed roll (nth (length closed) keys kd) I) as [w' [wr' [E [I' [V' [_ S']]]]]].
    rewrite E. eexists _, _. split; [reflexivity|]. cbn [s_flw s_w s_tl d_next].
    split; [reflexivity|]. split; [|split; [exact Ht | exact (same_env_step _ _ S')]].
    exists wr'. split; [reflexivity|]. split; [exact I' | congruence].
  - (* OTrigger *)
    rewrite Es, Hp. destruct A as [wr [-> [I V]]]. cbn [st_tsd f_cfg f_inner].
    destruct (mount_next_tsd c crit e lo hi (s_w x) wr keys closed roll true Hcfg T Y I Hhi Hmax eq_refl) as [w' [wr' [E [I' [V' S']]]]].
    rewrite E. eexists _, _. split; [reflexivity|]. cbn [s_flw s_w s_tl d_next code_of with_inner f_cfg f_poisoned].
    split; [reflexivity|]. split; [|split; [exact Ht | exact (same_env_step _ _ S')]].
    rewrite V in I'. exists wr'. pose proof (td_len _ _ _ _ _ _ _ I) as Hlen.
    rewrite nth_snoc_last by (rewrite app_length; cbn [length]; lia). split; [reflexivity|]. split; [exact I' | exact V'].
  - (* OTick *)
    eexists _, s. split; [reflexivity|]. cbn [s_flw s_w s_tl d_next set_now woff wnow wacts].
    split; [exact Es|]. split; [|split; [exact Ht|]; split; [reflexivity|]; split; reflexivity].
    destruct A as [wr [-> [I V]]]. exists wr. split; [reflexivity|]. split; [apply tsdinv_tick; assumption | exact V].
  - (* OSnap *)
    exists x, s. split; [reflexivity|]. split; [exact Es|]. split; [exact A|]. split; [exact Ht|].
    split; [lia|]. split; reflexivity.
Qed.

Lemma d_next_view w (keys : list key) (closed : list bytes) (cur : bytes) roll o : basic_op o ->
  let '(keys', closed', cur', roll') := d_next w (keys, closed, cur, roll) o in
  a_step (Some (closed, cur)) o (rot_of (d_obs w roll o)) = Some (closed', cur')
  /\ length closed' <= S (length closed)
  /\ (roll_size_ok roll (length cur) -> roll_size_ok roll' (length cur'))
  /\ (forall m k, roll = RSize m k -> exists k', roll' = RSize m k').
Proof.
  intros Hb.
  assert (Same : a_step (Some (closed, cur)) OFlush false = Some (closed, cur)
            /\ length closed <= S (length closed)
            /\ (roll_size_ok roll (length cur) -> roll_size_ok roll (length cur))
            /\ (forall m k, roll = RSize m k -> exists k', roll = RSize m k')).
  { split; [reflexivity|]. split; [lia|]. split; [exact (fun Z => Z) | eauto]. }
  assert (Wr : forall b, let '(keys', closed', cur', roll') := d_next w (keys, closed, cur, roll) (OWrite b) in
            Some (if rotation_necessary w roll then (closed ++ [cur], b) else (closed, cur ++ b)) = Some (closed', cur')
            /\ length closed' <= S (length closed)
            /\ (roll_size_ok roll (length cur) -> roll_size_ok roll' (length cur'))
            /\ (forall m k, roll = RSize m k -> exists k', roll' = RSize m k')).
  { intros b. cbn [d_next]. destruct (rotation_necessary w roll).
    - split; [reflexivity|]. split; [rewrite app_length; cbn [length]; lia|].
      split; [intros _; apply (roll_size_increase _ 0), reset_roll_size | intros m k ->; cbn; eauto].
    - split; [reflexivity|]. split; [lia|].
      split; [intros Z; rewrite app_length; apply roll_size_increase; exact Z | intros m k ->; cbn; eauto]. }
  destruct o; try contradiction.
  - exact (Wr b).
  - exact (Wr b).
  - exact Same.
  - cbn [d_next a_step]. split; [reflexivity|]. split; [rewrite app_length; cbn [length]; lia|].
    split; [intros _; apply reset_roll_size | intros m k ->; cbn; eauto].
  - exact Same.
  - exact Same.
Qed.

Lemma step_sync_rel_tsd c crit e lo n x a o : tsdcfg c crit -> RelTd c crit e lo n x a -> step x o = sync_step x o.
Proof.
  intros [_ [Hts [_ Ha]]] [_ [_ R]].
  destruct a as [[closed cur]|]; [destruct R as [keys [wr [roll [Es _]]]] | destruct R as [Es _]];
    exact (step_sync_cfg x o _ Es Hts Ha).
Qed.

Lemma RelTd_mono c crit e lo n x a : RelTd c crit e lo n x a -> RelTd c crit e lo (S n) x a.
Proof.
  intros [Ht [Ha R]]. split; [exact Ht|]. split; [exact Ha|]. destruct a as [[closed cur]|]; [|exact R].
  destruct R as [keys [wr [roll [Es [I [V [Hn ZR]]]]]]]. exists keys, wr, roll.
  split; [exact Es|]. split; [exact I|]. split; [exact V|]. split; [lia | exact ZR].
Qed.

Lemma first_write_tsd c crit e lo hi n x b :
  tsdcfg c crit -> tag_ok c -> years_ok e lo hi -> RelTd c crit e lo n x None ->
  (wnow (s_w x) <= hi)%Z -> (N.of_nat (S n) <= usize_max)%N ->
  exists w' s' rot, write_buffer (new_flw c) (s_w x) b = (Ok tt, w', s', rot)
    /\ RelTd c crit e lo (S n) {| s_flw := Some s'; s_w := w'; s_tl := []; s_dead := s_dead x |} (a_step None (OWrite b) rot)
    /\ wnow w' = wnow (s_w x) /\ (forall m, crit = CSize m -> rot = (m <? 0)%N).
Proof.
  intros Hcfg T Y [Ht [Ha [Es [Q [Hn [Hi [Hoff Hlo]]]]]]] Hhi Hmax.
  destruct (initialize_tsd_empty c crit e lo (s_w x) Hcfg Q Hn Hi Hoff Hlo) as [w1 [wr [Ei [I [V S1]]]]].
  remember (roll_of crit 0 (wnow (s_w x))) as roll eqn:Er.
  assert (A : ActD c e lo (st_tsd c e (wnow (s_w x), 0) roll wr) w1 ([(wnow (s_w x), 0)], [], [], roll)).
  { exists wr. split; [reflexivity|]. split; [exact I | exact V]. }
  destruct (act_write_tsd c crit e lo hi _ w1 _ _ _ roll b Hcfg T Y A ltac:(rewrite (same_env_now _ _ S1); exact Hhi)
              ltac:(cbn [length]; lia)) as [w' [s' [E [S' A']]]].
  pose proof (d_next_view w1 [(wnow (s_w x), 0)] [] [] roll (OWrite b) Logic.I) as D.
  destruct (d_next w1 _ (OWrite b)) as [[[keys' closed'] cur'] roll']. destruct D as [Ea [Hl [Z' RS']]].
  destruct A' as [wr' [-> [I' V']]].
  eexists w', _, _. split; [rewrite (write_buffer_init c (s_w x) b _ _ _ w1 Ei); exact E|].
  pose proof (same_env_trans _ _ _ S1 S') as S2.
  split; [|split; [exact (same_env_now _ _ S2) | intros m ->; rewrite Er; reflexivity]].
  split; [reflexivity|]. split; [exact (same_env_acts _ _ S2 Ha)|]. cbn [d_obs rot_of] in Ea.
  replace (a_step None (OWrite b) (rotation_necessary w1 roll)) with (Some (closed', cur')) by (symmetry; exact Ea).
  exists keys', wr', roll'. cbn [s_flw s_w length] in *. split; [reflexivity|]. split; [exact I'|]. split; [exact V'|].
  split; [lia|]. split; [apply Z'; rewrite Er; exact (roll_of_size crit 0 _)|].
  intros m ->. exact (RS' m 0%N Er).
Qed.

(* one basic operation *)
Lemma step_rel_tsd_obs c crit e lo hi n x a o :
  tsdcfg c crit -> tag_ok c -> years_ok e lo hi -> RelTd c crit e lo n x a -> basic_op o -> tick_ok o ->
  (wnow (s_w x) <= hi)%Z -> (N.of_nat (S n) <= usize_max)%N ->
  let '(x', ob) := step x o in
  RelTd c crit e lo (S n) x' (a_step a o (rot_of ob)) /\ wnow (s_w x') = (wnow (s_w x) + dt_of o)%Z
  /\ (forall b m, (o = OWrite b \/ o = OPlain b) -> crit = CSize m ->
        ob = ObsRes 0 (m <? N.of_nat (length (match a with Some (_, cu) => cu | None => [] end)))%N)
  /\ ob = match o with OSnap => snapshot (s_w x) | _ => ObsRes 0 (rot_of ob) end.
Proof.
  intros Hcfg T Y R Hb Htk Hhi Hmax. destruct a as [[closed cur]|].
  - destruct R as [Ht [Ha [keys [wr [roll [Es [I [V [Hn [Z RS]]]]]]]]]].
    assert (Hk : (N.of_nat (length keys) <= usize_max)%N) by (rewrite (td_len _ _ _ _ _ _ _ I); lia).
    assert (A : ActD c e lo (st_tsd c e (nth (length closed) keys kd) roll wr) (s_w x) (keys, closed, cur, roll)).
    { exists wr. split; [reflexivity|]. split; [exact I | exact V]. }
    destruct (act_step_tsd c crit e lo hi x _ keys closed cur roll o Hcfg T Y Es A Ht Hb Htk Hhi Hk)
      as [x' [s' [E [Es' [A' [Ht' [N' [_ Ac']]]]]]]]. rewrite E.
    pose proof (d_next_view (s_w x) keys closed cur roll o Hb) as D.
    destruct (d_next (s_w x) (keys, closed, cur, roll) o) as [[[keys' closed'] cur'] roll'].
    destruct D as [Ea [Hl [Z' RS']]]. destruct A' as [wr' [-> [I' V']]]. rewrite Ea.
    split; [|split; [exact N'|split]].
    + split; [exact Ht'|]. split; [rewrite Ac'; exact Ha|]. exists keys', wr', roll'.
      split; [exact Es'|]. split; [exact I'|]. split; [exact V'|]. split; [lia|]. split; [exact (Z' Z)|].
      intros m Hm. destruct (RS m Hm) as [k ->]. exact (RS' m k eq_refl).
    + intros b m Ho Hm. destruct (RS m Hm) as [k ->]. cbn in Z. subst k. destruct Ho as [-> | ->]; reflexivity.
    + destruct o; try contradiction; reflexivity.
  - pose proof R as [Ht [Ha [Es R0]]]. rewrite (step_sync_cfg x o _ Es (proj1 (proj2 Hcfg)) (proj2 (proj2 (proj2 Hcfg)))).
    destruct o; try contradiction; cbn [sync_step dt_of].
    + (* OWrite *)
      destruct (first_write_tsd c crit e lo hi n x (s_tl x ++ b) Hcfg T Y R Hhi Hmax) as [w' [s' [rot [E [R' [Hw C]]]]]].
      rewrite Es. cbn [new_flw f_poisoned]. fold (new_flw c). rewrite E. cbn [rot_of s_w]. rewrite Ht in R'.
      split; [exact R'|]. split; [lia|]. split; [intros b0 m _ Hm; rewrite (C m Hm); reflexivity | reflexivity].
    + (* OPlain *)
      destruct (first_write_tsd c crit e lo hi n x b Hcfg T Y R Hhi Hmax) as [w' [s' [rot [E [R' [Hw C]]]]]].
      rewrite Es. cbn [new_flw f_poisoned]. fold (new_flw c). rewrite E. cbn [rot_of code_of s_w]. rewrite Ht.
      split; [exact R'|]. split; [lia|]. split; [intros b0 m _ Hm; rewrite (C m Hm); reflexivity | reflexivity].
    + (* OFlush *)
      rewrite Es. cbn [new_flw f_poisoned flush_state f_inner rot_of a_step s_w].
      split; [|split; [lia | split; [intros b m [H|H]; discriminate | reflexivity]]].
      split; [exact Ht|]. split; [exact Ha|]. split; [reflexivity | exact R0].
    + (* OTrigger *)
      rewrite Es. cbn [new_flw f_poisoned f_cfg f_inner mount_next with_inner rot_of a_step code_of s_w].
      split; [|split; [lia | split; [intros b m [H|H]; discriminate | reflexivity]]].
      split; [exact Ht|]. split; [exact Ha|]. split; [reflexivity | exact R0].
    + (* OTick *)
      cbn [rot_of a_step s_w set_now wnow tick_ok] in *.
      split; [|split; [reflexivity | split; [intros b m [H|H]; discriminate | reflexivity]]].
      split; [exact Ht|]. split; [exact Ha|]. cbn [s_flw s_w]. destruct R0 as [Q [Hn [Hi [Hoff Hlo]]]].
      repeat split; try assumption; try apply Q. cbn [set_now wnow]. lia.
    + (* OSnap *)
      cbn [rot_of a_step]. split; [apply RelTd_mono; exact R|]. split; [lia|]. split; [intros b m [H|H]; discriminate | reflexivity].
Qed.

Lemma step_rel_tsd c crit e lo hi n x a o :
  tsdcfg c crit -> tag_ok c -> years_ok e lo hi -> RelTd c crit e lo n x a -> basic_op o -> tick_ok o ->
  (wnow (s_w x) <= hi)%Z -> (N.of_nat (S n) <= usize_max)%N ->
  let '(x', ob) := step x o in
  RelTd c crit e lo (S n) x' (a_step a o (rot_of ob)) /\ wnow (s_w x') = (wnow (s_w x) + dt_of o)%Z
  /\ (forall b m, (o = OWrite b \/ o = OPlain b) -> crit = CSize m ->
        ob = ObsRes 0 (m <? N.of_nat (length (match a with Some (_, cu) => cu | None => [] end)))%N).
Proof.
  intros Hcfg T Y R Hb Htk Hhi Hmax. pose proof (step_rel_tsd_obs c crit e lo hi n x a o Hcfg T Y R Hb Htk Hhi Hmax) as S.
  destruct (step x o) as [x' ob]. destruct S as [R' [W' [C' _]]]. split; [exact R'|]. split; [exact W' | exact C'].
Qed.

(* a run: the relation, the clock, and - for a size criterion - the rotation flags *)
Lemma run_rel_tsd c crit e lo hi : tsdcfg c crit -> tag_ok c -> years_ok e lo hi ->
  forall ops x a n, RelTd c crit e lo n x a -> Forall basic_op ops -> Forall tick_ok ops ->
  (wnow (s_w x) + elapsed ops <= hi)%Z -> (N.of_nat (n + length ops) <= usize_max)%N ->
  RelTd c crit e lo (n + length ops) (fst (run x ops)) (a_run a ops (snd (run x ops)))
  /\ wnow (s_w (fst (run x ops))) = (wnow (s_w x) + elapsed ops)%Z
  /\ (forall m, crit = CSize m ->
        a_run a ops (snd (run x ops)) = s_run m a ops
        /\ (forall i o, nth_error ops i = Some o -> forall b, (o = OWrite b \/ o = OPlain b) ->
              nth_error (snd (run x ops)) i = Some (ObsRes 0 (m <? N.of_nat (length (cur_of (s_run m a (firstn i ops)))))%N))).
Proof.
  intros Hcfg T Y. induction ops as [|o r IH]; intros x a n R Hb Htk Hhi Hmax.
  - cbn [run fst snd a_run length elapsed]. rewrite Nat.add_0_r. split; [exact R|]. split; [lia|].
    intros m _. split; [reflexivity|]. intros i o H. destruct i; discriminate.
  - cbn [run]. inversion Hb as [|o' r' Ho Hr]; subst. inversion Htk as [|o' r' Hto Htr]; subst.
    cbn [elapsed length] in *. pose proof (elapsed_nonneg r Htr) as Er.
    assert (Hdt : (0 <= dt_of o)%Z) by (destruct o; cbn [dt_of tick_ok] in *; lia).
    pose proof (step_rel_tsd c crit e lo hi n x a o Hcfg T Y R Ho Hto ltac:(lia) ltac:(lia)) as S. destruct (step x o) as [x1 ob].
    destruct S as [R1 [W1 C1]]. specialize (IH x1 _ (S n) R1 Hr Htr ltac:(lia) ltac:(lia)). destruct (run x1 r) as [x2 obs].
    cbn [fst snd a_run] in *. replace (n + S (length r)) with (S n + length r) by lia. destruct IH as [IH1 [IH2 IH3]].
    split; [exact IH1|]. split; [lia|].
    intros m Hm. destruct (IH3 m Hm) as [IHa IHb].
    assert (Erot : a_step a o (rot_of ob) = a_step a o (m <? N.of_nat (length (cur_of a)))%N).
    { destruct o; try reflexivity.
      - rewrite (C1 b m (or_introl eq_refl) Hm). reflexivity.
      - rewrite (C1 b m (or_intror eq_refl) Hm). reflexivity. }
    cbn [s_run]. rewrite <- Erot. split; [exact IHa|].
    intros i o0 Hi b Hw. destruct i as [|i].
    + cbn in Hi. injection Hi as <-. cbn [nth_error firstn s_run]. f_equal. apply (C1 b m Hw Hm).
    + cbn [nth_error firstn s_run] in *. rewrite <- Erot. apply (IHb i o0 Hi b Hw).
Qed.

(* ------------------------------------------------------------------ stop: what the reader finds *)
(* the directory consists exactly of the plain files named by the keys, with the given contents; the last one is the file
   that was written last *)
Definition tsd_view (c : config) (e : Z) (f : fs) (keys : list key) (files : list bytes) : Prop :=
  length keys = length files
  /\ (forall i, i < length files ->
        exists j, lookup f (kname c e (nth i keys kd)) = Some j /\ plain (inode f j) /\ content f j = nth i files [])
  /\ (forall n j, lookup f n = Some j -> exists i, i < length files /\ n = kname c e (nth i keys kd))
  /\ NoDup (dir_names f).

Lemma tsdinv_view c e lo w wr keys closed : TsdInv c e lo w wr keys closed -> wpend wr = [] ->
  tsd_view c e (wfs w) keys (closed ++ [cur_view w wr]).
Proof.
  intros [Q W Hnd Hoff Hlen Hc Hcp Hcl Hon Hko Hrg Hwr Hcap] P.
  assert (El : length (closed ++ [cur_view w wr]) = S (length closed)) by (rewrite app_length; cbn [length]; lia).
  split; [rewrite El; exact Hlen|]. split; [|split; [|exact Hnd]].
  - intros i Hi. rewrite El in Hi.
    destruct (Nat.eq_dec i (length closed)) as [->|Hne].
    + exists (wino wr). split; [exact Hc|]. split; [exact Hcp|].
      rewrite app_nth2, Nat.sub_diag by lia. cbn [nth]. unfold cur_view. rewrite P, app_nil_r. reflexivity.
    + assert (Hi' : i < length closed) by lia. destruct (Hcl i Hi') as [j [Lj [Pj [Cj _]]]]. exists j.
      split; [exact Lj|]. split; [exact Pj|]. rewrite app_nth1 by assumption. exact Cj.
  - intros n j L. destruct (Hon n j L) as [i [Hi E]]. exists i. rewrite El. split; [lia | exact E].
Qed.

Lemma tsdinv_flushed c e lo w wr keys closed : TsdInv c e lo w wr keys closed ->
  TsdInv c e lo (flushed w wr) (emptied wr) keys closed /\ cur_view (flushed w wr) (emptied wr) = cur_view w wr.
Proof.
  intros I.
  destruct (tsdinv_append c e lo w (flushed w wr) wr (emptied wr) keys closed (wpend wr) I eq_refl
              (flushed_env w wr (td_quiet _ _ _ _ _ _ _ I)) eq_refl eq_refl (wr_ok_nil _ _)) as [I1 C1].
  split; [exact I1|]. unfold cur_view. rewrite C1. cbn [emptied wpend]. apply app_nil_r.
Qed.

Lemma stop_view_tsd c e lo x s keys closed cur roll : s_flw x = Some s -> ActD c e lo s (s_w x) (keys, closed, cur, roll) ->
  tsd_view c e (wfs (s_w (fst (sync_step x OStop)))) keys (closed ++ [cur]).
Proof.
  intros Es [wr [-> [I V]]]. cbn [sync_step]. rewrite Es. unfold st_tsd. cbn [f_poisoned].
  rewrite drop_state_quiet by exact (td_quiet _ _ _ _ _ _ _ I). cbn [fst s_w].
  destruct (tsdinv_flushed c e lo (s_w x) wr keys closed I) as [I1 V1]. rewrite <- V, <- V1.
  exact (tsdinv_view c e lo _ _ keys closed I1 eq_refl).
Qed.

Lemma stop_rel_tsd c crit e lo n x a : tsdcfg c crit -> RelTd c crit e lo n x a ->
  let '(x', _) := step x OStop in
  match a with
  | None => names (wfs (s_w x')) = []
  | Some (closed, cur) => exists keys, tsd_view c e (wfs (s_w x')) keys (closed ++ [cur]) /\ keys_ok keys
                                       /\ (forall k, In k keys -> (lo <= fst k <= wnow (s_w x))%Z)
  end.
Proof.
  intros Hcfg R0. rewrite (step_sync_rel_tsd c crit e lo n x a OStop Hcfg R0). destruct R0 as [Ht [Ha R]].
  destruct a as [[closed cur]|].
  - destruct R as [keys [wr [roll [Es [I [V _]]]]]].
    assert (A : ActD c e lo (st_tsd c e (nth (length closed) keys kd) roll wr) (s_w x) (keys, closed, cur, roll)).
    { exists wr. split; [reflexivity|]. split; [exact I | exact V]. }
    pose proof (stop_view_tsd c e lo x _ keys closed cur roll Es A) as S. destruct (sync_step x OStop) as [x' ob].
    exists keys. split; [exact S|]. split; [exact (td_keys _ _ _ _ _ _ _ I) | exact (td_range _ _ _ _ _ _ _ I)].
  - destruct R as [Es [Q [Hn Hi]]]. cbn [sync_step]. rewrite Es. cbn [new_flw f_poisoned drop_state shutdown_state f_inner s_w]. exact Hn.
Qed.
