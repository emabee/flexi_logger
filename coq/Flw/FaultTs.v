(* C19 with rotation, Timestamps naming (rCURRENT): the model does what the specification FaultTsSpec.simts says - for EVERY
   fault oracle and EVERY list of records with clock advances (Timestamps naming, size criterion, direct mode, no
   cleanup, synchronous, no symlink, no start-time part in the name; both with and without append, use_utc either way;
   empty records included). *)
Require Import FL.Base.Bytes FL.Base.BytesFacts FL.Fs.Fs FL.Time.TsFormat FL.Names.FileSpec FL.Flw.Model FL.Flw.ModelFacts
  FL.Flw.NumFs FL.Flw.NumInv FL.Flw.Run FL.Flw.NumRun FL.Flw.NumListing FL.Flw.NumRestart FL.Flw.NumDInv FL.Flw.TsTime
  FL.Flw.TsNames FL.Flw.TsInv FL.Flw.TsRun FL.Flw.TsTheorems FL.Flw.TsdInv FL.Flw.TsdRun FL.Flw.TsdTheorems FL.Flw.TsAsync
  FL.Flw.FaultFacts FL.Flw.FaultRotSpec FL.Flw.FaultRotation FL.Flw.FaultTsdSpec FL.Flw.FaultTsd FL.Flw.FaultTsSpec
  FL.Oracles.ReaderOrder FL.Flw.TsReader FL.Flw.SnapFacts.
From Coq Require Import ZifyN ZifyNat ZifyBool.
Open Scope nat_scope.

Section Ts.
Variables (c : config) (m : N) (e lo hi : Z).
Hypothesis Hcfg : tscfg c (CSize m).
Hypothesis Hcap : c_cap c = None.
Hypothesis Htag : tag_ok c.
Hypothesis Hyears : years_ok e lo hi.

(* the state of an initialised writer: the path stays that of rCURRENT, also while the writer is on the renamed file *)
Definition actz (ts : Z) (cur : N) (wr : writer) : inner :=
  Active (Some (mk_rs (NSTs ts (Some cur_infix) std_fmt) (RSize m cur))) wr (cname c).

(* ---- the rotation check of one write, computed: infix is the collision-free infix for the time stamp of the naming
        state, o what the rename of rCURRENT finds ---- *)
Lemma mount_next_z_gen q fl ts cur wr infix o :
  quiet q -> wpend wr = [] -> eoff c q = e ->
  collision_free_infix (woff q) (c_spec c) (fixed0 c) (wfs q) (tsx e ts) = Some (Some infix) ->
  rename (wfs q) (cname c) (nm c infix) = o ->
  let q1 := match o with Some f1 => set_fs q f1 | None => q end in
  lookup (wfs q1) (cname c) = None ->
  let fl1 := snd (pop fl) in let fl2 := snd (pop fl1) in let fl3 := snd (pop fl2) in let fl4 := snd (pop fl3) in
  mount_next c (fw q fl) (actz ts cur wr) false =
    if (m <? cur)%N then
      if fst (pop fl) then (Err, fw q fl1, actz ts cur wr)
      else if fst (pop fl1) then (Err, fw q fl2, actz ts cur wr)
      else if fst (pop fl2) then (Err, fw q fl3, actz ts cur wr)
      else if fst (pop fl3) then (Err, fw q1 fl4, actz (wnow q) cur wr)
      else (Ok tt, fw (set_fs q1 (fst (create_file (wfs q1) (cname c) 0%N (wnow q)))) fl4,
            actz (wnow q) 0 {| wino := snd (create_file (wfs q1) (cname c) 0%N (wnow q)); wpend := []; wcap := c_cap c |})
    else (Ok tt, fw q fl, actz ts cur wr).
Proof.
  intros Q Hp Hoff Hcf Eo q1 L1 fl1 fl2 fl3 fl4. pose proof Hcfg as [Hrot [Hts [Hlink _]]].
  unfold mount_next, actz. cbn [mk_rs rs_roll rs_naming rs_cleanup rs_bg orb rotation_necessary]. unfold size_rotation_necessary.
  destruct (m <? cur)%N; [|reflexivity].
  unfold creation_ts_of_current. rewrite (name_of_fixed c (fw q fl)) by assumption. fold (nm c cur_infix) (cname c).
  rewrite infix_from_ts_tsx. change (eoff c (fw q fl)) with (eoff c q). rewrite Hoff.
  rewrite collision_free_fw by exact Hts. unfold fl4, fl3, fl2, fl1.
  destruct (pop fl) as [f1 r1]. cbn [fst snd]. destruct f1; [reflexivity|].
  destruct (pop r1) as [f2 r2]. cbn [fst snd]. destruct f2; [reflexivity|].
  rewrite Hcf. rewrite (name_of_fixed c (fw q r2)) by assumption. fold (nm c infix).
  rewrite p_rename_fw by exact Q. rewrite Eo.
  destruct (pop r2) as [f3 r3]. cbn [fst snd]. destruct f3; [reflexivity|].
  assert (Q1 : quiet q1) by (unfold q1; destruct o; [apply quiet_set_fs|]; exact Q).
  assert (N1 : wnow q1 = wnow q) by (unfold q1; destruct o; reflexivity).
  assert (B : birth_or_now (fw q1 r3) (cname c) = wnow q).
  { unfold birth_or_now, file_of. change (wfs (fw q1 r3)) with (wfs q1). rewrite L1. exact N1. }
  pose proof (mount_tail_fw c q1 r3 (Some cur_infix) (NSTs (wnow q) (Some cur_infix) std_fmt) m cur wr (cname c) Q1 Hts Hlink Hp L1) as X.
  cbv zeta in X. rewrite N1 in X.
  unfold q1 in B, X |- *. destruct o as [f1|]; cbn beta iota; rewrite B; exact X.
Qed.

(* ------------------------------------------------------------------ the two halves of a rotation *)
(* rCURRENT is renamed to the name of the key (ts, count ts keys): the directory is that of a writer that writes into the
   file of the last key (TsdInv) *)
Lemma tsinv_rename q wr keys closed ts :
  TsInv c e lo q wr keys closed ts -> (wnow q <= hi)%Z ->
  let knew := (ts, count ts keys) in
  exists f1, rename (wfs q) (cname c) (kname c e knew) = Some f1 /\ lookup f1 (cname c) = None /\
    forall q1, quiet q1 -> wfs q1 = f1 -> eoff c q1 = e -> wnow q1 = wnow q ->
      TsdInv c e lo q1 wr (keys ++ [knew]) closed /\ cur_view q1 wr = cur_view q wr.
Proof.
  intros I Hhi knew. pose proof I as [Q W Hnd Hoff Hc Hcp Hlen Hcl Hon Hko Hrg Htsr Hwr Hcp2].
  destruct (tsinv_years _ _ _ _ _ _ _ _ _ I Hyears Hhi) as [Yts Yk].
  assert (Hnk : ~ In knew keys) by (intros Ik; apply (keys_count keys Hko) in Ik; lia).
  assert (Hne : cname c <> kname c e knew) by (intros E; exact (kname_not_cname c e knew Yts (eq_sym E))).
  destruct (rename_spec (wfs q) (cname c) (kname c e knew) (wino wr) Hne Hc) as [f1 [Er [Hino [Lt [Lc Lo]]]]].
  exists f1. split; [exact Er|]. split; [exact Lc|]. intros q1 Q1 F1 Hoff1 Hnow1.
  assert (Ein : forall j, inode (wfs q1) j = inode (wfs q) j) by (intros j; unfold inode; rewrite F1, Hino; reflexivity).
  assert (Hneq : forall i, i < length closed -> kname c e (nth i keys kd) <> kname c e knew).
  { intros i Hi E. apply kname_inj in E; [|apply Yk, nth_In; lia | exact Yts]. apply Hnk. rewrite <- E. apply nth_In. lia. }
  split.
  - constructor.
    + exact Q1.
    + rewrite F1. exact (wf_rename _ _ _ _ W Er).
    + rewrite F1. exact (rename_nodup _ _ _ _ Hnd Er).
    + exact Hoff1.
    + rewrite app_length, Hlen. cbn [length]. lia.
    + rewrite nth_snoc_last by exact Hlen. rewrite F1. exact Lt.
    + rewrite Ein. exact Hcp.
    + intros i Hi. destruct (Hcl i Hi) as [j [Lj [Pj [Cj Hj]]]]. exists j.
      rewrite (app_nth1 keys _ kd) by lia. rewrite F1, Lo; [|apply kname_not_cname, Yk, nth_In; lia | apply Hneq; exact Hi].
      split; [exact Lj|]. unfold content. rewrite <- F1, Ein. split; [exact Pj|]. split; [exact Cj | exact Hj].
    + intros n j L. rewrite F1 in L.
      destruct (beq_spec n (kname c e knew)) as [->|Hn2].
      * exists (length closed). split; [lia|]. rewrite nth_snoc_last by exact Hlen. reflexivity.
      * destruct (beq_spec n (cname c)) as [->|Hn1]; [rewrite Lc in L; discriminate|].
        rewrite Lo in L by assumption. destruct (Hon _ _ L) as [E|[i [Hi E]]]; [contradiction|].
        exists i. split; [lia|]. rewrite (app_nth1 keys _ kd) by lia. exact E.
    + apply ko_snoc; [exact Hko|]. intros k Ik. specialize (Hrg k Ik). lia.
    + rewrite Hnow1. intros k Ik. apply in_app_or in Ik. destruct Ik as [Ik|[<-|[]]].
      * specialize (Hrg k Ik). lia.
      * unfold knew. cbn [fst]. lia.
    + exact Hwr.
    + exact Hcp2.
  - unfold cur_view, content. rewrite Ein. reflexivity.
Qed.

Lemma tsdinv_no_cname q wr keys closed : TsdInv c e lo q wr keys closed -> (wnow q <= hi)%Z -> lookup (wfs q) (cname c) = None.
Proof.
  intros I Hhi. destruct (lookup (wfs q) (cname c)) as [j|] eqn:E; [exfalso | reflexivity].
  destruct (td_only _ _ _ _ _ _ _ I _ _ E) as [i [Hi E1]]. symmetry in E1. revert E1. apply kname_not_cname.
  apply (years_in e lo hi); [exact Hyears|]. pose proof (td_len _ _ _ _ _ _ _ I) as Hlen.
  pose proof (td_range _ _ _ _ _ _ _ I (nth i keys kd) ltac:(apply nth_In; lia)). lia.
Qed.

(* a new rCURRENT is created beside the files of the keys, the writer (nothing pending) leaves the file of the last key *)
Lemma tsdinv_create q wr keys closed :
  TsdInv c e lo q wr keys closed -> wpend wr = [] -> (wnow q <= hi)%Z ->
  forall q3, quiet q3 -> wfs q3 = fst (create_file (wfs q) (cname c) 0%N (wnow q)) -> eoff c q3 = e -> wnow q3 = wnow q ->
    let wr' := {| wino := snd (create_file (wfs q) (cname c) 0%N (wnow q)); wpend := []; wcap := c_cap c |} in
    TsInv c e lo q3 wr' keys (closed ++ [cur_view q wr]) (wnow q) /\ cur_view q3 wr' = [].
Proof.
  intros I Hp Hhi q3 Q3 F3 Hoff3 Hnow3 wr'.
  pose proof (tsdinv_no_cname q wr keys closed I Hhi) as Ht.
  pose proof I as [Q W Hnd Hoff Hlen Hc Hcp Hcl Hon Hko Hrg Hwr Hcp2].
  pose proof (tsdinv_now _ _ _ _ _ _ _ I) as Hlo.
  destruct (tsdinv_years _ _ _ _ _ _ _ _ I Hyears Hhi) as [_ Yk].
  pose proof (wf_bound _ W _ _ Hc) as Hold.
  pose proof (direct_fs_spec (wfs q) (cname c) (wino wr) [] (wnow q) W Hold Ht) as R.
  cbn zeta in R. rewrite append_ino_nil_id in R. rewrite <- F3 in R.
  destruct R as [W3 [Hnew [L3t [L3o [Inew [Iold Ioth]]]]]].
  set (new := snd (create_file (wfs q) (cname c) 0%N (wnow q))) in *.
  assert (Elen : length (closed ++ [cur_view q wr]) = S (length closed)) by (rewrite app_length; cbn [length]; lia).
  assert (Hnc : forall i, i <= length closed -> kname c e (nth i keys kd) <> cname c).
  { intros i Hi. apply kname_not_cname, Yk, nth_In. lia. }
  split.
  - constructor.
    + exact Q3.
    + exact W3.
    + rewrite F3. apply create_nodup; [exact Hnd | exact Ht].
    + exact Hoff3.
    + exact L3t.
    + cbn [wr' wino]. rewrite Inew. split; reflexivity.
    + rewrite Elen. exact Hlen.
    + intros i Hi. rewrite Elen in Hi.
      destruct (Nat.eq_dec i (length closed)) as [->|Hne].
      * exists (wino wr). rewrite L3o by (apply Hnc; lia). split; [exact Hc|]. split; [rewrite Iold; exact Hcp|].
        split; [|cbn [wr' wino]; rewrite Hnew; lia].
        unfold content at 1. rewrite Iold. cbn [with_data fdata]. rewrite app_nth2, Nat.sub_diag by lia. cbn [nth].
        unfold cur_view. rewrite Hp. reflexivity.
      * assert (Hi' : i < length closed) by lia. destruct (Hcl i Hi') as [j [Lj [Pj [Cj Hj2]]]].
        exists j. rewrite L3o by (apply Hnc; lia). split; [exact Lj|].
        assert (Hj1 : j <> new). { pose proof (wf_bound _ W _ _ Lj). rewrite Hnew. lia. }
        unfold content. rewrite Ioth by assumption. split; [exact Pj|]. rewrite app_nth1 by assumption. split; [exact Cj | exact Hj1].
    + intros n j Hn. destruct (beq_spec n (cname c)) as [->|Hn1]; [left; reflexivity | right].
      rewrite L3o in Hn by assumption. destruct (Hon _ _ Hn) as [i [Hi E]]. exists i. rewrite Elen. split; [lia | exact E].
    + exact Hko.
    + exact Hrg.
    + rewrite Hnow3. lia.
    + apply wr_ok_nil.
    + reflexivity.
  - unfold cur_view. cbn [wr' wino wpend]. unfold content. rewrite Inew. reflexivity.
Qed.

(* ------------------------------------------------------------------ the writer and its file *)
(* on rCURRENT (old = false: the invariant of the fault-free development), or on the file that was rCURRENT and has been
   renamed to the name of the last key while no new rCURRENT could be created (old = true: the directory is that of a
   writer with TimestampsDirect naming) *)
Definition ZA (old : bool) (q : world) (wr : writer) (keys : list key) (closed : list bytes) (ts : Z) : Prop :=
  if old then TsdInv c e lo q wr keys closed /\ (lo <= ts <= wnow q)%Z else TsInv c e lo q wr keys closed ts.
Definition z_same (old : bool) (keys : list key) (closed : list bytes) (ts : Z) (d : bytes) : zst :=
  if old then ZOld keys closed ts d else ZCur keys closed ts d.

Lemma za_quiet old q wr keys closed ts : ZA old q wr keys closed ts -> quiet q.
Proof. destruct old; [intros [I _] | intros I]; apply I. Qed.
Lemma za_cap old q wr keys closed ts : ZA old q wr keys closed ts -> wcap wr = None.
Proof. destruct old; [intros [I _]; rewrite (td_cap _ _ _ _ _ _ _ I) | intros I; rewrite (ti_cap _ _ _ _ _ _ _ _ I)]; exact Hcap. Qed.
Lemma za_lo old q wr keys closed ts : ZA old q wr keys closed ts -> (lo <= wnow q)%Z.
Proof. destruct old; [intros [I _]; exact (tsdinv_now _ _ _ _ _ _ _ I) | intros I; pose proof (ti_ts _ _ _ _ _ _ _ _ I); lia]. Qed.
Lemma za_off old q wr keys closed ts : ZA old q wr keys closed ts -> eoff c q = e.
Proof. destruct old; [intros [I _] | intros I]; apply I. Qed.

Lemma za_env old q q' wr keys closed ts : ZA old q wr keys closed ts ->
  wfs q' = wfs q -> quiet q' -> wnow q' = wnow q -> woff q' = woff q -> ZA old q' wr keys closed ts.
Proof.
  destruct old; cbn [ZA].
  - intros [[Q W Hnd Hoff Hlen Hc Hcp Hcl Hon Hko Hrg Hwr Hca] T] F Q' N' O'. split; [|rewrite N'; exact T].
    constructor; try rewrite F; try assumption; [rewrite (eoff_woff c _ _ O'); exact Hoff | rewrite N'; exact Hrg].
  - intros I F Q' N' O'. exact (TsRun.tsinv_env c e lo q q' wr keys closed ts I F Q' O' N').
Qed.

Lemma za_append old q q' wr keys closed ts x : ZA old q wr keys closed ts -> wpend wr = [] ->
  wfs q' = append_ino (wfs q) (wino wr) x -> quiet q' -> wnow q' = wnow q -> woff q' = woff q ->
  ZA old q' wr keys closed ts /\ cur_view q' wr = cur_view q wr ++ x.
Proof.
  intros A Hp F Q' N' O'. pose proof (za_quiet _ _ _ _ _ _ A) as Q.
  set (q2 := set_fs q (append_ino (wfs q) (wino wr) x)).
  assert (A2 : ZA old q2 wr keys closed ts /\ content (wfs q2) (wino wr) = content (wfs q) (wino wr) ++ x).
  { destruct old; cbn [ZA] in *.
    - destruct A as [I T].
      destruct (tsdinv_append c e lo q q2 wr wr keys closed x I eq_refl (same_env_set_fs q _ Q) eq_refl eq_refl (td_wr _ _ _ _ _ _ _ I)) as [I2 C2].
      split; [split; [exact I2 | exact T] | exact C2].
    - exact (tsinv_append c e lo q q2 wr wr keys closed ts x A eq_refl (same_env_set_fs q _ Q) eq_refl eq_refl (ti_wr _ _ _ _ _ _ _ _ A)). }
  destruct A2 as [A2 C2]. split; [apply (za_env old q2); [exact A2 | rewrite F; reflexivity | exact Q' | exact N' | exact O']|].
  unfold cur_view. rewrite Hp, !app_nil_r, F. exact C2.
Qed.

(* ------------------------------------------------------------------ the invariant of the run *)
(* the directory while the writer is not initialised: empty, or the one empty rCURRENT born in second t0 (append; as the
   file of a writer wr0 that does not exist any more) *)
Definition InitDirZ (q : world) (created : option Z) : Prop :=
  match created with
  | None => names (wfs q) = [] /\ inodes (wfs q) = []
  | Some t0 => c_append c = true /\ exists wr0, TsInv c e lo q wr0 [] [] t0 /\ wpend wr0 = [] /\ cur_view q wr0 = []
                                                /\ fborn (inode (wfs q) (wino wr0)) = t0
  end.

(* n bounds the number of closed files *)
Definition ZFInv (x : sys) (st : zst) (errs : list ecode) (fl : list bool) (now : Z) (n : nat) : Prop :=
  exists q, s_w x = fw q fl /\ quiet q /\ wacts q = 0 /\ werrs q = errs /\ s_tl x = [] /\ wnow q = now /\ eoff c q = e /\ (lo <= now)%Z /\
  match st with
  | ZInit created => s_flw x = Some (flw_of c Initial) /\ InitDirZ q created
  | ZCur keys closed ts d =>
    exists wr, s_flw x = Some (flw_of c (actz ts (N.of_nat (length d)) wr))
      /\ ZA false q wr keys closed ts /\ wpend wr = [] /\ cur_view q wr = d /\ length closed <= n
  | ZOld keys closed ts d =>
    exists wr, s_flw x = Some (flw_of c (actz ts (N.of_nat (length d)) wr))
      /\ ZA true q wr keys closed ts /\ wpend wr = [] /\ cur_view q wr = d /\ length closed <= n
  end.

Lemma zfinv_same x old keys closed ts d errs fl q wr n :
  s_w x = fw q fl -> wacts q = 0 -> werrs q = errs -> s_tl x = [] ->
  s_flw x = Some (flw_of c (actz ts (N.of_nat (length d)) wr)) -> ZA old q wr keys closed ts -> wpend wr = [] ->
  cur_view q wr = d -> length closed <= n ->
  ZFInv x (z_same old keys closed ts d) errs fl (wnow q) n.
Proof.
  intros Ew Ha He Ht Es A Hp V Hn. exists q.
  split; [exact Ew|]. split; [exact (za_quiet _ _ _ _ _ _ A)|]. split; [exact Ha|]. split; [exact He|]. split; [exact Ht|].
  split; [reflexivity|]. split; [exact (za_off _ _ _ _ _ _ A)|]. split; [exact (za_lo _ _ _ _ _ _ A)|].
  destruct old; cbn [z_same]; exists wr; auto.
Qed.

(* the rotation check has been made (result r1, world q1, oracle fl1, writer wr1 on a file that holds d1): the write *)
Lemma tail_step_z x q fl ts cur wr r1 q1 fl1 old1 keys1 closed1 ts1 d1 wr1 errs1 b n1 :
  s_w x = fw q fl -> s_tl x = [] -> s_flw x = Some (flw_of c (actz ts cur wr)) ->
  mount_next c (fw q fl) (actz ts cur wr) false = (r1, fw q1 fl1, actz ts1 (N.of_nat (length d1)) wr1) ->
  r1 <> Panic -> wacts q1 = 0 -> werrs q1 = errs1 -> ZA old1 q1 wr1 keys1 closed1 ts1 -> wpend wr1 = [] ->
  cur_view q1 wr1 = d1 -> length closed1 <= n1 ->
  let '(d', e', fl2) := s_write d1 b fl1 in
  exists x' rot, step x (OWrite b) = (x', ObsRes 0 rot)
    /\ ZFInv x' (z_same old1 keys1 closed1 ts1 d') (errs1 ++ (match r1 with Err => [ELogFile] | _ => [] end) ++ e') fl2 (wnow q1) n1.
Proof.
  intros Ew Ht Es M Hr Ha1 He1 A1 Hp1 V1 Hn1. pose proof (za_quiet _ _ _ _ _ _ A1) as Q1.
  pose proof (za_cap _ _ _ _ _ _ A1) as Hc1.
  unfold actz in M.
  destruct (wb_active_rs c m q fl KNever false _ _ cur wr r1 q1 fl1 _ _ _ wr1 b M Hr Q1 Hc1) as [q3 [E [R3 F3]]].
  fold (actz ts cur wr) in E.
  unfold s_write. destruct (wr_pop b fl1) as [f fl2]. cbn [fst snd] in *.
  rewrite <- Ew in E. destruct Hcfg as [_ [Hts [_ Hsy]]]. pose proof (step_write_sync x _ b _ _ _ _ Es eq_refl Hts Hsy Ht E) as S.
  destruct f.
  - (* the write fails: reported by the handle *)
    eexists _, _. split; [apply S; discriminate|].
    destruct (report_reported EWrite q3 (proj1 R3)) as [R4 F4].
    pose proof (reported_trans _ _ _ _ _ R3 R4) as R.
    rewrite <- (reported_now _ _ _ R).
    apply (zfinv_same _ old1 keys1 closed1 ts1 d1 _ fl2 (report EWrite q3) wr1 n1); cbn [s_w s_tl s_flw].
    + apply report_fw. apply R3.
    + exact (reported_acts _ _ _ R Ha1).
    + rewrite (reported_errs _ _ _ _ R He1). reflexivity.
    + reflexivity.
    + reflexivity.
    + apply (za_env old1 q1); [exact A1 | rewrite F4; exact F3 | apply R | exact (reported_now _ _ _ R) | apply R].
    + exact Hp1.
    + unfold cur_view in *. rewrite F4, F3. exact V1.
    + exact Hn1.
  - eexists _, _. split; [apply S; discriminate|].
    destruct (za_append old1 q1 q3 wr1 keys1 closed1 ts1 b A1 Hp1 F3 (proj1 R3) (reported_now _ _ _ R3) ltac:(apply R3)) as [A3 V3].
    rewrite <- (reported_now _ _ _ R3).
    apply (zfinv_same _ old1 keys1 closed1 ts1 (d1 ++ b) _ fl2 q3 wr1 n1); cbn [s_w s_tl s_flw].
    + reflexivity.
    + exact (reported_acts _ _ _ R3 Ha1).
    + rewrite (reported_errs _ _ _ _ R3 He1), app_nil_r. reflexivity.
    + reflexivity.
    + rewrite app_length, Nat2N.inj_add. reflexivity.
    + exact A3.
    + exact Hp1.
    + rewrite V3, V1. reflexivity.
    + exact Hn1.
Qed.

(* the two step functions of an initialised writer in one: they differ in the keys after the rename (on the renamed file
   nothing is found to rename) and in the state in which the writer stays *)
Lemma z_rot_alt (old : bool) m0 now keys closed ts d b fl :
  (if old then z_old else z_active) m0 now keys closed ts d b fl =
  let keys1 := if old then keys else keys ++ [(ts, count ts keys)] in
  let stay fl0 := let '(d', e', fl') := s_write d b fl0 in (z_same old keys closed ts d', ELogFile :: e', fl') in
  if (m0 <? N.of_nat (length d))%N then
    let '(f1, fl1) := pop fl in
    if f1 then stay fl1 else
    let '(f2, fl2) := pop fl1 in
    if f2 then stay fl2 else
    let '(f3, fl3) := pop fl2 in
    if f3 then stay fl3 else
    let '(f4, fl4) := pop fl3 in
    if f4 then let '(d', e', fl') := s_write d b fl4 in (ZOld keys1 closed now d', ELogFile :: e', fl')
    else let '(d', e', fl') := s_write [] b fl4 in (ZCur keys1 (closed ++ [d]) now d', e', fl')
  else let '(d', e', fl') := s_write d b fl in (z_same old keys closed ts d', e', fl').
Proof. destruct old; reflexivity. Qed.

(* the naming step of a rotation and its rename: rCURRENT gets the next key of the second ts; a writer on the renamed file
   finds nothing to rename.  Either way the directory is then that of the keys alone, the writer on the file of the last key *)
Lemma za_rename old q wr keys closed ts :
  ZA old q wr keys closed ts -> (wnow q <= hi)%Z -> (N.of_nat (S (length closed)) <= usize_max)%N ->
  let knew := (ts, count ts keys) in
  exists o, collision_free_infix (woff q) (c_spec c) (fixed0 c) (wfs q) (tsx e ts) = Some (Some (infix_of e knew))
    /\ rename (wfs q) (cname c) (nm c (infix_of e knew)) = o
    /\ let q1 := match o with Some f1 => set_fs q f1 | None => q end in
       lookup (wfs q1) (cname c) = None
       /\ TsdInv c e lo q1 wr (if old then keys else keys ++ [knew]) closed /\ cur_view q1 wr = cur_view q wr.
Proof.
  intros A Hhi Hmax knew. destruct old; cbn [ZA] in A.
  - destruct A as [I T]. pose proof (tsdinv_no_cname q wr keys closed I Hhi) as Lc. exists None.
    destruct (tsdinv_years _ _ _ _ _ _ _ _ I Hyears Hhi) as [_ Yk].
    assert (Yts : in_years e ts) by (apply (years_in e lo hi); [exact Hyears | lia]).
    split.
    { apply (collision_free_infix_ts c e (woff q) (wfs q) keys ts (count ts keys) Htag Yts Yk (tsdinv_dir _ _ _ _ _ _ _ I)
               (keys_count keys (td_keys _ _ _ _ _ _ _ I) ts)).
      pose proof (count_le_length ts keys). pose proof (td_len _ _ _ _ _ _ _ I). lia. }
    split; [exact (rename_none _ _ _ Lc)|]. cbn zeta. split; [exact Lc|]. split; [exact I | reflexivity].
  - destruct (tsinv_rename q wr keys closed ts A Hhi) as [f1 [Er [Lc RI]]]. exists (Some f1).
    split; [exact (cfi_tsinv c e lo hi q wr keys closed ts Htag Hyears A Hhi ltac:(lia))|]. split; [exact Er|]. cbn zeta.
    split; [exact Lc|].
    exact (RI (set_fs q f1) (quiet_set_fs _ _ (ti_quiet _ _ _ _ _ _ _ _ A)) eq_refl (ti_off _ _ _ _ _ _ _ _ A) eq_refl).
Qed.

(* one record on an initialised writer *)
Lemma active_step_z old x q fl errs ts keys closed d wr b n :
  s_w x = fw q fl -> wacts q = 0 -> werrs q = errs -> s_tl x = [] ->
  s_flw x = Some (flw_of c (actz ts (N.of_nat (length d)) wr)) ->
  ZA old q wr keys closed ts -> wpend wr = [] -> cur_view q wr = d -> length closed <= n ->
  (wnow q <= hi)%Z -> (N.of_nat (S n) <= usize_max)%N ->
  let '(st', e', fl') := (if old then z_old else z_active) m (wnow q) keys closed ts d b fl in
  exists x' rot, step x (OWrite b) = (x', ObsRes 0 rot) /\ ZFInv x' st' (errs ++ e') fl' (wnow q) (S n).
Proof.
  intros Ew Ha He Ht Es A Hp V Hn Hhi Hmax. rewrite z_rot_alt. cbv zeta.
  pose proof (za_quiet _ _ _ _ _ _ A) as Q. pose proof (za_off _ _ _ _ _ _ A) as Hoff. pose proof (za_lo _ _ _ _ _ _ A) as Hlo.
  destruct (za_rename old q wr keys closed ts A Hhi ltac:(lia)) as [o [Hcf [Er [Lc [Id Vd]]]]]. rewrite V in Vd.
  pose proof (mount_next_z_gen q fl ts (N.of_nat (length d)) wr _ o Q Hp Hoff Hcf Er Lc) as M. cbv zeta in M.
  set (knew := (ts, count ts keys)) in *. set (keys1 := if old then keys else keys ++ [knew]) in *.
  set (q1 := match o with Some f1 => set_fs q f1 | None => q end) in *.
  assert (E1 : wnow q1 = wnow q /\ wacts q1 = 0 /\ werrs q1 = errs) by (unfold q1; destruct o; auto).
  destruct E1 as [N1 [Ha1 He1]].
  assert (Hn' : length closed <= S n) by lia.
  (* a failing step before the rename is done: the record goes into the file the writer is on *)
  assert (Stay : forall fl0, mount_next c (fw q fl) (actz ts (N.of_nat (length d)) wr) false
                             = (Err, fw q fl0, actz ts (N.of_nat (length d)) wr) ->
            let '(st', e', fl') := (let '(d', e', fl') := s_write d b fl0 in (z_same old keys closed ts d', ELogFile :: e', fl')) in
            exists x' rot, step x (OWrite b) = (x', ObsRes 0 rot) /\ ZFInv x' st' (errs ++ e') fl' (wnow q) (S n)).
  { intros fl0 M0.
    pose proof (tail_step_z x q fl ts _ wr Err q fl0 old keys closed ts d wr errs b (S n) Ew Ht Es M0
                  (fun H => ltac:(discriminate H)) Ha He A Hp V Hn') as T0.
    destruct (s_write d b fl0) as [[d' e'] fl2]. exact T0. }
  destruct (m <? N.of_nat (length d))%N eqn:Em.
  - destruct (pop fl) as [p1 fl1]. cbn [fst snd] in M. destruct p1; [exact (Stay fl1 M)|].
    destruct (pop fl1) as [p2 fl2]. cbn [fst snd] in M. destruct p2; [exact (Stay fl2 M)|].
    destruct (pop fl2) as [p3 fl3]. cbn [fst snd] in M. destruct p3; [exact (Stay fl3 M)|].
    destruct (pop fl3) as [p4 fl4]. cbn [fst snd] in M. destruct p4.
    + (* after the rename the new rCURRENT cannot be created: the record goes into the file of the last key *)
      assert (A1 : ZA true q1 wr keys1 closed (wnow q)) by (split; [exact Id | lia]).
      pose proof (tail_step_z x q fl ts _ wr Err q1 fl4 true keys1 closed (wnow q) d wr errs b (S n) Ew Ht Es M
                    (fun H => ltac:(discriminate H)) Ha1 He1 A1 Hp Vd Hn') as T0. rewrite N1 in T0.
      destruct (s_write d b fl4) as [[d' e'] fl5]. exact T0.
    + (* the rotation is completed *)
      set (q3 := set_fs q1 (fst (create_file (wfs q1) (cname c) 0%N (wnow q)))) in *.
      assert (Q3 : quiet q3) by (apply quiet_set_fs; apply Id).
      destruct (tsdinv_create q1 wr keys1 closed Id Hp ltac:(lia) q3 Q3 ltac:(rewrite N1; reflexivity) (td_off _ _ _ _ _ _ _ Id) eq_refl) as [I3 V3].
      rewrite Vd, N1 in I3. rewrite N1 in V3.
      change 0%N with (N.of_nat (length (@nil N))) in M.
      assert (Hn3 : length (closed ++ [d]) <= S n) by (rewrite app_length; cbn [length]; lia).
      pose proof (tail_step_z x q fl ts _ wr (Ok tt) q3 fl4 false keys1 (closed ++ [d]) (wnow q) [] _ errs b (S n) Ew Ht Es M
                    (fun H => ltac:(discriminate H)) Ha1 He1 I3 eq_refl V3 Hn3) as T0. change (wnow q3) with (wnow q1) in T0. rewrite N1 in T0.
      destruct (s_write [] b fl4) as [[d' e'] fl5]. exact T0.
  - pose proof (tail_step_z x q fl ts _ wr (Ok tt) q fl old keys closed ts d wr errs b (S n) Ew Ht Es M
                  (fun H => ltac:(discriminate H)) Ha He A Hp V Hn') as T0.
    destruct (s_write d b fl) as [[d' e'] fl1]. exact T0.
Qed.

(* ------------------------------------------------------------------ the initialisation *)
Lemma tsinv_first q2 f t born : quiet q2 -> names f = [] -> inodes f = [] ->
  wfs q2 = fst (create_file f (cname c) 0%N born) -> eoff c q2 = e -> (lo <= t <= wnow q2)%Z ->
  TsInv c e lo q2 {| wino := 0; wpend := []; wcap := c_cap c |} [] [] t
  /\ cur_view q2 {| wino := 0; wpend := []; wcap := c_cap c |} = []
  /\ lookup (wfs q2) (cname c) = Some 0 /\ inode (wfs q2) 0 = fresh_file born.
Proof.
  intros Q Hn Hi F2 Hoff Ht. unfold create_file in F2. cbn [fst] in F2. rewrite Hn, Hi in F2. cbn [length app] in F2.
  destruct (one_file_fs (cname c) (fresh_file born)) as [W [Nd [Lc On]]]. unfold fresh_file in W, Nd, Lc, On. rewrite <- F2 in W, Nd, Lc, On.
  split; [|split; [|split]].
  - constructor; cbn [length nth wino wpend wcap].
    + exact Q.
    + exact W.
    + exact Nd.
    + exact Hoff.
    + exact Lc.
    + rewrite F2. split; reflexivity.
    + reflexivity.
    + intros i Hi'. lia.
    + intros n j L. left. exact (On n j L).
    + constructor.
    + intros k [].
    + exact Ht.
    + apply wr_ok_nil.
    + reflexivity.
  - unfold cur_view, content, inode. rewrite F2. reflexivity.
  - exact Lc.
  - unfold inode. rewrite F2. reflexivity.
Qed.

(* the name part of the initialisation: the time stamp of the naming state *)
Lemma naming_z_fw q fl created :
  quiet q -> eoff c q = e -> InitDirZ q created ->
  init_naming c (fw q fl) NTimestamps =
    match npops (if c_append c then 0 else 3) fl with
    | (Some _, fl') => (Err, fw q fl')
    | (None, fl') => (Ok (NSTs (z_first (wnow q) created) (Some cur_infix) std_fmt, cur_infix), fw q fl')
    end.
Proof.
  intros Q Hoff D. pose proof Hcfg as [Hrot [Hts [Hlink _]]].
  assert (B : forall fl0, birth_or_now (fw q fl0) (cname c) = z_first (wnow q) created).
  { intros fl0. unfold birth_or_now, file_of. change (wfs (fw q fl0)) with (wfs q). destruct created as [t0|]; cbn [InitDirZ z_first] in *.
    - destruct D as [_ [wr0 [I0 [_ [_ Hb]]]]]. rewrite (ti_cur _ _ _ _ _ _ _ _ I0). exact Hb.
    - destruct D as [Hn _]. rewrite lookup_empty by exact Hn. reflexivity. }
  unfold init_naming, creation_ts_of_current. rewrite (name_of_fixed c (fw q fl)) by assumption. fold (nm c cur_infix) (cname c).
  destruct (c_append c) eqn:Ha; cbn [negb npops].
  - rewrite B. reflexivity.
  - destruct created as [t0|]; [destruct D as [Ha' _]; congruence|]. cbn [InitDirZ z_first] in *. destruct D as [Hn Hi].
    rewrite collision_free_fw by exact Hts.
    destruct (pop fl) as [f1 fl1]. cbn [fst snd]. destruct f1; [reflexivity|].
    destruct (pop fl1) as [f2 fl2]. cbn [fst snd]. destruct f2; [reflexivity|].
    rewrite collision_free_infix_empty by exact Hn.
    rewrite p_rename_fw by exact Q. rewrite rename_none by (apply lookup_empty; exact Hn).
    destruct (pop fl2) as [f3 fl3]. cbn [fst snd]. destruct f3; [reflexivity|].
    cbn [bind]. rewrite (B fl3). reflexivity.
Qed.

(* the open/create of rCURRENT by a writer that is being initialised *)
Lemma open_init_z q fl created :
  quiet q -> eoff c q = e -> (lo <= wnow q)%Z -> InitDirZ q created ->
  let t := z_first (wnow q) created in
  exists f2 ino,
    open_log_file c (fw q fl) (Some cur_infix)
    = (if fst (pop fl) then (Err, fw q (snd (pop fl)))
       else (Ok ({| wino := ino; wpend := []; wcap := c_cap c |}, cname c), fw (set_fs q f2) (snd (pop fl))))
    /\ TsInv c e lo (set_fs q f2) {| wino := ino; wpend := []; wcap := c_cap c |} [] [] t
    /\ cur_view (set_fs q f2) {| wino := ino; wpend := []; wcap := c_cap c |} = []
    /\ lookup f2 (cname c) = Some ino /\ fdata (inode f2 ino) = [] /\ fborn (inode f2 ino) = t.
Proof.
  intros Q Hoff Hlo D t. destruct Hcfg as [Hrot [Hts [Hlink _]]].
  destruct created as [t0|]; cbn [InitDirZ z_first] in *; unfold t in *; clear t.
  - destruct D as [Ha [wr0 [I0 [Hp0 [V0 Hb]]]]].
    unfold open_log_file. rewrite (name_of_fixed c (fw q fl)) by assumption. fold (nm c cur_infix) (cname c).
    unfold do_symlink. rewrite Hlink. rewrite p_open_fw by exact Q.
    pose proof (ti_cur _ _ _ _ _ _ _ _ I0) as Lc.
    pose proof (ti_curplain _ _ _ _ _ _ _ _ I0) as [_ Pd].
    assert (Ewr : {| wino := wino wr0; wpend := []; wcap := c_cap c |} = wr0).
    { pose proof (ti_cap _ _ _ _ _ _ _ _ I0) as Hc0. destruct wr0 as [i p k]. cbn [wino wpend wcap] in *. subst. reflexivity. }
    exists (wfs q), (wino wr0).
    split.
    { unfold file_of. rewrite Lc, Pd, Ha. unfold open_append. rewrite Lc. cbn [fst snd]. destruct (fst (pop fl)); reflexivity. }
    rewrite Ewr.
    split; [apply (TsRun.tsinv_env c e lo q); [exact I0 | reflexivity | apply quiet_set_fs; exact Q | reflexivity | reflexivity]|].
    split; [exact V0|]. split; [exact Lc|]. split; [|exact Hb].
    unfold cur_view in V0. rewrite Hp0, app_nil_r in V0. exact V0.
  - destruct D as [Hn Hi].
    pose proof (lookup_empty (wfs q) (cname c) Hn) as Lc.
    rewrite (open_log_file_fresh_fw c q fl (Some cur_infix) Q Hts Hlink Lc). cbv zeta. fold (nm c cur_infix) (cname c).
    set (q2 := set_fs q (fst (create_file (wfs q) (cname c) 0%N (wnow q)))).
    assert (Q2 : quiet q2) by (apply quiet_set_fs; exact Q).
    destruct (tsinv_first q2 (wfs q) (wnow q) (wnow q) Q2 Hn Hi eq_refl Hoff) as [I2 [V2 [L2 Fo]]]; [cbn [q2 set_fs wnow]; lia|].
    exists (fst (create_file (wfs q) (cname c) 0%N (wnow q))), 0.
    assert (Esnd : snd (create_file (wfs q) (cname c) 0%N (wnow q)) = 0)
      by (unfold create_file; cbn [snd]; rewrite Hi; reflexivity).
    split. { rewrite Esnd. destruct (fst (pop fl)); reflexivity. }
    split; [exact I2|]. split; [exact V2|]. split; [exact L2|]. change (wfs q2) with (fst (create_file (wfs q) (cname c) 0%N (wnow q))) in Fo.
    rewrite Fo. split; reflexivity.
Qed.

Lemma initialize_z_fw q fl created :
  quiet q -> eoff c q = e -> (lo <= wnow q)%Z -> InitDirZ q created ->
  let t := z_first (wnow q) created in
  match z_init_pops (c_append c) fl with
  | (Some k, fl') =>
    exists q', initialize c (fw q fl) = (Err, fw q' fl') /\ same_env q q'
      /\ InitDirZ q' (if k then Some t else created)
  | (None, fl') =>
    exists q' wr, initialize c (fw q fl) = (Ok (actz t 0 wr), fw q' fl') /\ same_env q q'
      /\ TsInv c e lo q' wr [] [] t /\ wpend wr = [] /\ cur_view q' wr = []
  end.
Proof.
  intros Q Hoff Hlo D t. pose proof Hcfg as [Hrot [Hts [Hlink _]]].
  assert (Fail : forall fl', exists q', (Err : res inner, fw q fl') = (Err, fw q' fl') /\ same_env q q' /\ InitDirZ q' created).
  { intros fl'. exists q. split; [reflexivity|]. split; [apply same_env_refl; exact Q | exact D]. }
  unfold initialize. rewrite Hrot. rewrite (naming_z_fw q fl created Q Hoff D). fold t.
  unfold z_init_pops, init_pops. rewrite npops_app.
  destruct (npops (if c_append c then 0 else 3) fl) as [[j|] fl3]; [cbn [bind]; apply Fail|].
  cbn [bind npops].
  destruct (open_init_z q fl3 created Q Hoff Hlo D) as [f2 [ino [Eop [I2 [V2 [L2 [Fd Fb]]]]]]]. fold t in I2, Fb.
  rewrite Eop. destruct (pop fl3) as [f4 fl4]. cbn [fst snd]. destruct f4; [cbn [bind]; apply Fail|]. cbn [bind].
  set (q2 := set_fs q f2) in *. assert (Q2 : quiet q2) by (apply quiet_set_fs; exact Q).
  rewrite (roll_new_fw q2 fl4 m (c_append c) (cname c) (inode f2 ino) (file_of_lookup _ _ _ L2) Fd).
  destruct (if c_append c then pop fl4 else (false, fl4)) as [f5 fl5] eqn:E5. destruct f5; cbn [bind].
  - (* the metadata call fails: rCURRENT has been created *)
    exists q2. split; [reflexivity|]. split; [apply same_env_set_fs; exact Q|].
    cbn [InitDirZ]. split; [destruct (c_append c); [reflexivity | discriminate E5]|].
    exists {| wino := ino; wpend := []; wcap := c_cap c |}. cbn [wino]. auto.
  - exists q2, {| wino := ino; wpend := []; wcap := c_cap c |}. split; [reflexivity|]. split; [apply same_env_set_fs; exact Q|].
    auto.
Qed.

(* one record on a writer that is not initialised *)
Lemma init_step_z x created errs fl b now n : ZFInv x (ZInit created) errs fl now n ->
  (now <= hi)%Z -> (N.of_nat (S n) <= usize_max)%N ->
  let '(st', e', fl') := z_init (c_append c) m now created b fl in
  exists x' rot, step x (OWrite b) = (x', ObsRes 0 rot) /\ ZFInv x' st' (errs ++ e') fl' now (S n).
Proof.
  intros [q [Ew [Q [Ha [He [Ht [Hnow [Hoff [Hlo [Es D]]]]]]]]]] Hhi Hmax. rewrite z_init_alt. pose proof Hcfg as [_ [Hts [_ Hsy]]].
  pose proof (initialize_z_fw q fl created Q Hoff ltac:(lia) D) as IF. cbv zeta in IF. rewrite Hnow in IF.
  destruct (z_init_pops (c_append c) fl) as [[k|] fl'].
  - (* the initialisation fails: the record is lost, the handle reports it, the writer stays uninitialised *)
    destruct IF as [q' [Ei [S D']]].
    assert (E : write_buffer (flw_of c Initial) (s_w x) b = (Err, fw q' fl', flw_of c Initial, false)).
    { rewrite Ew. unfold write_buffer. cbn [flw_of f_cfg f_inner]. rewrite Ei. reflexivity. }
    eexists _, _. split; [apply (step_write_sync x _ b Err _ _ false Es eq_refl Hts Hsy Ht E); discriminate|].
    destruct (report_reported EWrite q' (proj1 S)) as [R4 F4].
    pose proof (reported_trans _ _ _ _ _ (same_env_reported _ _ S) R4) as RR. cbn [app] in RR.
    exists (report EWrite q'). cbn [s_w s_tl s_flw].
    split; [apply report_fw; apply S|]. split; [apply R4|]. split; [exact (reported_acts _ _ _ RR Ha)|].
    split; [exact (reported_errs _ _ _ _ RR He)|]. split; [reflexivity|].
    split; [rewrite (reported_now _ _ _ RR); exact Hnow|]. split; [rewrite (reported_eoff c _ _ _ RR); exact Hoff|]. split; [exact Hlo|].
    split; [reflexivity|].
    (* the directory is that of q' *)
    assert (N4 : wnow (report EWrite q') = wnow q') by exact (reported_now _ _ _ R4).
    assert (O4 : woff (report EWrite q') = woff q') by apply R4.
    destruct (if k then Some (z_first now created) else created) as [t1|]; cbn [InitDirZ] in *.
    + destruct D' as [Ha' [wr0 [I0 [Hp0 [V0 Hb0]]]]]. split; [exact Ha'|]. exists wr0.
      split; [apply (TsRun.tsinv_env c e lo q'); [exact I0 | exact F4 | apply R4 | exact O4 | exact N4]|]. split; [exact Hp0|].
      unfold cur_view in *. rewrite F4. split; [exact V0 | exact Hb0].
    + rewrite F4. exact D'.
  - destruct IF as [q' [wr [Ei [S [A [Hp V]]]]]].
    set (t := z_first now created) in *.
    set (x1 := {| s_flw := Some (flw_of c (actz t 0 wr)); s_w := fw q' fl'; s_tl := []; s_dead := s_dead x |}).
    assert (E : step x (OWrite b) = step x1 (OWrite b)).
    { apply (step_write_same x x1 _ _ b Es eq_refl eq_refl eq_refl eq_refl Hts Hsy Ht eq_refl eq_refl). rewrite Ew. cbn [x1 s_w].
      exact (write_buffer_init c (fw q fl) b _ wr (cname c) (fw q' fl') Ei). }
    rewrite E.
    assert (Nq' : wnow q' = now) by (destruct S as [_ [H _]]; congruence).
    pose proof (active_step_z false x1 q' fl' errs t [] [] [] wr b n eq_refl) as AS. rewrite Nq' in AS.
    apply AS.
    + exact (same_env_acts _ _ S Ha).
    + destruct S as [_ [_ [_ [H _]]]]. congruence.
    + reflexivity.
    + reflexivity.
    + exact A.
    + exact Hp.
    + exact V.
    + cbn [length]. lia.
    + exact Hhi.
    + exact Hmax.
Qed.

(* the clock advances *)
Lemma tick_step_z x st errs fl now n dt : ZFInv x st errs fl now n -> (0 <= dt)%Z ->
  exists x', step x (OTick dt) = (x', ObsRes 0 false) /\ ZFInv x' st errs fl (now + dt) n.
Proof.
  intros [q [Ew [Q [Ha [He [Ht [Hnow [Hoff [Hlo I]]]]]]]]] Hdt. destruct Hcfg as [_ [Hts [_ Has]]].
  assert (Es : exists s, s_flw x = Some s /\ f_cfg s = c).
  { destruct st as [created|keys closed ts d|keys closed ts d]; [destruct I as [Es _] | destruct I as [wr [Es _]] | destruct I as [wr [Es _]]];
      rewrite Es; eexists; split; reflexivity. }
  destruct Es as [s [Es Ec]].
  rewrite (RunFacts.step_sync_cfg x (OTick dt) s Es) by (rewrite Ec; assumption). cbn [sync_step].
  eexists. split; [reflexivity|].
  exists (set_now q (wnow q + dt)%Z). cbn [s_w s_tl s_flw]. rewrite Ew.
  split; [reflexivity|]. split; [exact Q|]. split; [exact Ha|]. split; [exact He|]. split; [exact Ht|].
  split; [cbn [set_now wnow]; rewrite Hnow; reflexivity|]. split; [exact Hoff|]. split; [lia|].
  destruct st as [created|keys closed ts d|keys closed ts d].
  - destruct I as [Es' D]. split; [exact Es'|]. destruct created as [t0|]; cbn [InitDirZ] in *; [|exact D].
    destruct D as [Ha' [wr0 [I0 [Hp0 [V0 Hb0]]]]]. split; [exact Ha'|]. exists wr0.
    split; [apply tsinv_tick; assumption|]. split; [exact Hp0|]. split; [exact V0 | exact Hb0].
  - destruct I as [wr [Es' [A [Hp [V Hn]]]]]. exists wr. split; [exact Es'|].
    split; [cbn [ZA] in *; apply tsinv_tick; assumption|]. split; [exact Hp|]. split; [exact V | exact Hn].
  - destruct I as [wr [Es' [[A T] [Hp [V Hn]]]]]. exists wr. split; [exact Es'|].
    split; [split; [apply tsdinv_tick; assumption | cbn [set_now wnow]; lia]|]. split; [exact Hp|]. split; [exact V | exact Hn].
Qed.

(* the log call of one record *)
Lemma write_step_z x st errs fl now n r : ZFInv x st errs fl (now + fst r) n ->
  (now + fst r <= hi)%Z -> (N.of_nat (S n) <= usize_max)%N ->
  let '(st', e', fl') := zstep (c_append c) m now st fl r in
  exists x' rot, step x (OWrite (snd r)) = (x', ObsRes 0 rot) /\ ZFInv x' st' (errs ++ e') fl' (now + fst r) (S n).
Proof.
  intros I1 Hhi Hmax. destruct st as [created|keys closed ts d|keys closed ts d]; cbn [zstep].
  - apply (init_step_z x created errs fl (snd r) (now + fst r)%Z n I1 Hhi Hmax).
  - destruct I1 as [q [Ew [Q [Ha [He [Ht [Hnow [Hoff [Hlo [wr [Es [A [Hp [V Hn]]]]]]]]]]]]]].
    pose proof (active_step_z false x q fl errs ts keys closed d wr (snd r) n Ew Ha He Ht Es A Hp V Hn) as AS.
    rewrite Hnow in AS. apply AS; assumption.
  - destruct I1 as [q [Ew [Q [Ha [He [Ht [Hnow [Hoff [Hlo [wr [Es [A [Hp [V Hn]]]]]]]]]]]]]].
    pose proof (active_step_z true x q fl errs ts keys closed d wr (snd r) n Ew Ha He Ht Es A Hp V Hn) as AS.
    rewrite Hnow in AS. apply AS; assumption.
Qed.

Definition zfrun := frun_gen zst (zstep (c_append c) m) (simts_st (c_append c) m) (fun _ _ _ => eq_refl) (fun _ _ _ _ _ => eq_refl)
                      ZFInv hi tick_step_z write_step_z.

(* ------------------------------------------------------------------ what the invariant says about the world *)
(* the directory: the plain files named by the keys, with the contents listed, and - if there is one - rCURRENT; nothing else *)
Definition ts_view_opt (f : fs) (keys : list key) (conts : list bytes) (ocur : option bytes) : Prop :=
  match ocur with Some d => ts_view c e f keys conts d | None => tsd_view c e f keys conts end.

(* the time stamp of the naming state *)
Definition ns_ts_of (x : sys) : option Z :=
  match s_flw x with
  | Some s => match f_inner s with
              | Active (Some rs) _ _ => match rs_naming rs with NSTs ts _ _ => Some ts | _ => None end
              | _ => None end
  | None => None
  end.

Lemma zfinv_final x st errs fl now n : ZFInv x st errs fl now n ->
  fs_wf (wfs (s_w x)) /\ ts_view_opt (wfs (s_w x)) (z_keys st) (z_closed st) (z_cur st)
  /\ werrs (s_w x) = errs /\ wfaults (s_w x) = fl /\ wkill (s_w x) = None /\ ns_ts_of x = z_ts st.
Proof.
  intros [q [Ew [Q [Ha [He [Ht [Hnow [Hoff [Hlo I]]]]]]]]]. rewrite Ew. cbn [fw set_faults wfs werrs wfaults wkill].
  assert (V : fs_wf (wfs q) /\ ts_view_opt (wfs q) (z_keys st) (z_closed st) (z_cur st) /\ ns_ts_of x = z_ts st).
  { destruct st as [[t0|]|keys closed ts d|keys closed ts d]; cbn [z_keys z_closed z_cur z_ts ts_view_opt].
    - destruct I as [Es [_ [wr0 [I0 [Hp0 [V0 _]]]]]]. split; [apply I0|].
      pose proof (tsinv_view c e lo q wr0 _ _ _ I0 Hp0) as TV. rewrite V0 in TV. split; [exact TV|]. unfold ns_ts_of. rewrite Es. reflexivity.
    - destruct I as [Es [Hn _]]. split; [apply names_nil_wf; exact Hn|]. split; [apply tsd_view_nil; auto|]. unfold ns_ts_of. rewrite Es. reflexivity.
    - destruct I as [wr [Es [A [Hp [V _]]]]]. cbn [ZA] in A. split; [apply A|].
      pose proof (tsinv_view c e lo q wr _ _ _ A Hp) as TV. rewrite V in TV. split; [exact TV|]. unfold ns_ts_of. rewrite Es. reflexivity.
    - destruct I as [wr [Es [[A T] [Hp [V _]]]]]. split; [apply A|].
      pose proof (tsdinv_view c e lo q wr _ _ A Hp) as TV. rewrite V in TV. split; [exact TV|]. unfold ns_ts_of. rewrite Es. reflexivity. }
  destruct V as [W [V Tn]]. split; [exact W|]. split; [exact V|]. split; [exact He|]. split; [reflexivity|]. split; [apply Q | exact Tn].
Qed.

Lemma zfinv_start t0 off fl : ts_e c off = e -> (lo <= t0)%Z ->
  ZFInv (fst (step {| s_flw := None; s_w := set_faults (world0 t0 off) fl; s_tl := []; s_dead := false |} (OStart c))) (ZInit None) [] fl t0 0.
Proof.
  intros He Hlo. exists (world0 t0 off). split; [reflexivity|]. split; [split; reflexivity|]. split; [reflexivity|]. split; [reflexivity|].
  split; [reflexivity|]. split; [reflexivity|]. split; [exact He|]. split; [exact Hlo|]. split; [reflexivity|]. split; reflexivity.
Qed.

(* when the oracle is used up and the writer is on rCURRENT, the state is related to the view (closed contents, current
   content), the keys and the time stamp by the very relation of the fault-free development (TsAsync.RelTK) *)
Theorem zfinv_reltk x keys closed ts d errs now n : ZFInv x (ZCur keys closed ts d) errs [] now n ->
  RelTK c (CSize m) e lo n x (Some (closed, d)) keys ts.
Proof.
  intros [q [Ew [Q [Ha [He [Ht [Hnow [Hoff [Hlo [wr [Es [A [Hp [V Hn]]]]]]]]]]]]]]. cbn [ZA] in A.
  assert (Eq : s_w x = q). { rewrite Ew. destruct q. destruct Q as [F K]. cbn in F, K. subst. reflexivity. }
  split; [exact Ht|]. split; [rewrite Eq; exact Ha|].
  exists wr, (RSize m (N.of_nat (length d))). rewrite Eq.
  split; [exact Es|]. split; [exact A|]. split; [exact V|]. split; [exact Hn|].
  intros m' E'. injection E' as <-. reflexivity.
Qed.

End Ts.


(* the run and the specification, state by state: everything the two forms of the theorem say *)
Lemma faults_timestamps_run c m t0 off fl recs :
  tscfg c (CSize m) -> c_cap c = None -> tag_ok c -> ticks_ok recs ->
  (0 <= t0 + ts_e c off)%Z -> (t0 + telapsed recs + ts_e c off < sec_max)%Z -> (N.of_nat (length recs) <= usize_max)%N ->
  let r := run (fsys t0 off fl) (OStart c :: tops recs) in
  let '(st, errs, rest) := simts_st (c_append c) m t0 (ZInit None) fl recs in
  fs_wf (wfs (s_w (fst r)))
  /\ ts_view_opt c (ts_e c off) (wfs (s_w (fst r))) (z_keys st) (z_closed st) (z_cur st)
  /\ ns_ts_of (fst r) = z_ts st
  /\ z_ok t0 (t0 + telapsed recs) st
  /\ werrs (s_w (fst r)) = errs /\ wfaults (s_w (fst r)) = rest
  /\ (forall o, In o (snd r) -> exists rot, o = ObsRes 0 rot).
Proof.
  intros Hcfg Hcap T Ht Hlo Hhi Hmax. cbv zeta.
  assert (Y : years_ok (ts_e c off) t0 (t0 + telapsed recs)) by (split; assumption).
  pose proof (zfinv_start c m (ts_e c off) t0 t0 off fl eq_refl (Z.le_refl _)) as I0. fold (fsys t0 off fl) in I0.
  pose proof (zfrun c m (ts_e c off) t0 (t0 + telapsed recs) Hcfg Hcap T Y recs _ _ _ _ _ _ I0 Ht (Z.le_refl _) Hmax) as R.
  pose proof (simts_keys (c_append c) m t0 recs t0 (ZInit None) fl (Z.le_refl _) Ht) as SK.
  destruct (simts_st (c_append c) m t0 (ZInit None) fl recs) as [[st e'] fl']. cbn [fst] in SK.
  destruct R as [x' [obs [R [I O]]]]. cbn [app] in I.
  rewrite run_start, R. cbn [fst snd].
  destruct (zfinv_final c m (ts_e c off) t0 x' st e' fl' _ _ I) as [W [V [He [Hf [_ Tn]]]]].
  split; [exact W|]. split; [exact V|]. split; [exact Tn|]. split; [exact (proj1 SK (z_ok_init t0 t0))|]. split; [exact He|]. split; [exact Hf|].
  intros o [<-|Ho]; [eexists; reflexivity|]. rewrite Forall_forall in O. exact (O o Ho).
Qed.

(* (1) For every fault oracle fl and every list of records with clock advances: after  OStart c :: tops recs  (before each
   record the clock advances by the given number of seconds) from the empty directory with the oracle fl, the directory is
   exactly what simts says - the plain files named by the keys, with the contents listed, and rCURRENT with its content, or
   (ocur = None: before the first successful initialisation, or after a rotation whose rename succeeded and whose open
   failed) NO rCURRENT; nothing else -; the keys are those of keys_ok (seconds non-decreasing, within a second <ts>,
   <ts>.restart-0000, <ts>.restart-0001, ...: all names different), each key carrying the second at which its file was
   started; the error channel holds exactly the errors simts lists (with their codes, in order), the oracle is consumed as
   simts says, and every operation returns normally: no panic, no error result, the state is never poisoned. *)
Theorem faults_timestamps c m t0 off fl recs :
  tscfg c (CSize m) -> c_cap c = None -> tag_ok c -> ticks_ok recs ->
  (0 <= t0 + ts_e c off)%Z -> (t0 + telapsed recs + ts_e c off < sec_max)%Z -> (N.of_nat (length recs) <= usize_max)%N ->
  let r := run (fsys t0 off fl) (OStart c :: tops recs) in
  let '(keys, conts, ocur, errs, rest) := simts (c_append c) m t0 fl recs in
  fs_wf (wfs (s_w (fst r)))
  /\ ts_view_opt c (ts_e c off) (wfs (s_w (fst r))) keys conts ocur
  /\ keys_ok keys /\ (forall k, In k keys -> (t0 <= fst k <= t0 + telapsed recs)%Z)
  /\ werrs (s_w (fst r)) = errs
  /\ wfaults (s_w (fst r)) = rest
  /\ (forall o, In o (snd r) -> exists rot, o = ObsRes 0 rot).
Proof.
  intros Hcfg Hcap T Ht Hlo Hhi Hmax.
  pose proof (faults_timestamps_run c m t0 off fl recs Hcfg Hcap T Ht Hlo Hhi Hmax) as F. cbv zeta in F |- *. unfold simts.
  destruct (simts_st (c_append c) m t0 (ZInit None) fl recs) as [[st e'] fl'].
  destruct F as [W [V [_ [Zk [He [Hf O]]]]]]. destruct (z_ok_keys _ _ _ Zk) as [K Rg]. auto 10.
Qed.
Print Assumptions faults_timestamps.

(* the state-level form, with the time stamp of the naming state: after a rotation whose open failed (state ZOld) it is
   the second of that failed attempt - not the time stamp under which the file was renamed, and not the name of any file *)
Theorem faults_timestamps_st c m t0 off fl recs :
  tscfg c (CSize m) -> c_cap c = None -> tag_ok c -> ticks_ok recs ->
  (0 <= t0 + ts_e c off)%Z -> (t0 + telapsed recs + ts_e c off < sec_max)%Z -> (N.of_nat (length recs) <= usize_max)%N ->
  let r := run (fsys t0 off fl) (OStart c :: tops recs) in
  let '(st, errs, rest) := simts_st (c_append c) m t0 (ZInit None) fl recs in
  ts_view_opt c (ts_e c off) (wfs (s_w (fst r))) (z_keys st) (z_closed st) (z_cur st)
  /\ ns_ts_of (fst r) = z_ts st
  /\ z_ok t0 (t0 + telapsed recs) st
  /\ werrs (s_w (fst r)) = errs /\ wfaults (s_w (fst r)) = rest
  /\ (forall o, In o (snd r) -> exists rot, o = ObsRes 0 rot).
Proof.
  intros Hcfg Hcap T Ht Hlo Hhi Hmax.
  pose proof (faults_timestamps_run c m t0 off fl recs Hcfg Hcap T Ht Hlo Hhi Hmax) as F. cbv zeta in F |- *.
  destruct (simts_st (c_append c) m t0 (ZInit None) fl recs) as [[st e'] fl']. tauto.
Qed.
Print Assumptions faults_timestamps_st.

(* (2) in terms of the run, record by record: with t the list of log calls (record, its reports, the oracle entries its
   call consumed - they partition the consumed part of the oracle, and the reports are those on the error channel), the
   directory (the files of the keys in their order, then rCURRENT if there is one) reads as the concatenation of the
   records that were kept; a record whose log call consumed only `false` entries is kept and nothing is reported for it; a
   record that is missing had a failing call in its own log call and was reported with EWrite *)
Theorem ts_lost_only_around_failures c m t0 off fl recs :
  tscfg c (CSize m) -> c_cap c = None -> tag_ok c -> ticks_ok recs ->
  (0 <= t0 + ts_e c off)%Z -> (t0 + telapsed recs + ts_e c off < sec_max)%Z -> (N.of_nat (length recs) <= usize_max)%N ->
  let x := fst (run (fsys t0 off fl) (OStart c :: tops recs)) in
  let t := tracez (c_append c) m t0 (ZInit None) fl recs in
  exists keys conts ocur,
    ts_view_opt c (ts_e c off) (wfs (s_w x)) keys conts ocur /\ keys_ok keys
    /\ dir_stream conts ocur = concat (List.map t_kept t)
    /\ List.map t_rec t = List.map snd recs
    /\ werrs (s_w x) = concat (List.map t_errs t)
    /\ fl = concat (List.map t_used t) ++ wfaults (s_w x)
    /\ (forall e, In e t -> length (t_errs e) = ntrue (t_used e))
    /\ (forall e, In e t -> (forall f, In f (t_used e) -> f = false) -> t_errs e = [] /\ t_kept e = t_rec e)
    /\ (forall e, In e t -> t_kept e <> t_rec e -> In true (t_used e) /\ In EWrite (t_errs e)).
Proof.
  intros Hcfg Hcap T Ht Hlo Hhi Hmax. cbv zeta.
  pose proof (faults_timestamps c m t0 off fl recs Hcfg Hcap T Ht Hlo Hhi Hmax) as Fr. cbv zeta in Fr. unfold simts in Fr.
  pose proof (ts_lost_only_around_failures_spec (c_append c) m t0 fl recs) as L.
  destruct (simts_st (c_append c) m t0 (ZInit None) fl recs) as [[st e'] fl']. cbv zeta in L.
  destruct Fr as [_ [V [K [_ [He [Hf _]]]]]]. destruct L as [H1 [H2 [H3 [H4 [H5 [H6 H7]]]]]].
  exists (z_keys st), (z_closed st), (z_cur st). rewrite He, Hf.
  split; [exact V|]. split; [exact K|]. split; [exact H4|]. split; [exact H1|]. split; [exact H3|]. split; [exact H2|]. auto.
Qed.
Print Assumptions ts_lost_only_around_failures.

(* (2), (3) in terms of the run only: the directory reads (files in the order of the keys, then rCURRENT) as the
   concatenation of a subsequence `kept` of the records; each missing record is announced by one EWrite: #missing = #EWrite
   <= #reports; the only other code that occurs is ELogFile (a failed step of a rotation; the record of that call is not
   lost) *)
Theorem ts_loss_is_reported c m t0 off fl recs :
  tscfg c (CSize m) -> c_cap c = None -> tag_ok c -> ticks_ok recs ->
  (0 <= t0 + ts_e c off)%Z -> (t0 + telapsed recs + ts_e c off < sec_max)%Z -> (N.of_nat (length recs) <= usize_max)%N ->
  let x := fst (run (fsys t0 off fl) (OStart c :: tops recs)) in
  exists keys conts ocur kept,
    ts_view_opt c (ts_e c off) (wfs (s_w x)) keys conts ocur /\ keys_ok keys
    /\ dir_stream conts ocur = concat kept /\ Subseq kept (List.map snd recs)
    /\ length recs = length kept + nlost (werrs (s_w x))
    /\ nlost (werrs (s_w x)) <= length (werrs (s_w x))
    /\ (forall e, In e (werrs (s_w x)) -> e = EWrite \/ e = ELogFile).
Proof.
  intros Hcfg Hcap T Ht Hlo Hhi Hmax. cbv zeta.
  pose proof (faults_timestamps c m t0 off fl recs Hcfg Hcap T Ht Hlo Hhi Hmax) as F. cbv zeta in F. unfold simts in F.
  pose proof (ts_loss_is_reported_spec (c_append c) m recs t0 (ZInit None) fl) as L.
  destruct (simts_st (c_append c) m t0 (ZInit None) fl recs) as [[st e'] fl'].
  destruct F as [_ [V [K [_ [He _]]]]]. destruct L as [kept [Hs [Hst [Hl [Hle Hco]]]]].
  exists (z_keys st), (z_closed st), (z_cur st), kept. rewrite He. split; [exact V|]. split; [exact K|]. split; [exact Hst|]. auto.
Qed.
Print Assumptions ts_loss_is_reported.

(* (4) recovery at the level of the run.  x1: after recs1; r2: after recs1 ++ recs2.  When the oracle that is left after
   recs1 holds no failure any more: nothing more is reported, every record of recs2 is in the stream, the contents (closed
   files, file of the writer) develop by the fault-free size rule s_run - a rotation whose steps failed is carried out with
   the first record, one that was left half done (renamed, no new rCURRENT) is completed with it: after the first record the
   writer is on rCURRENT again -, keys and closed files are only extended (a file that was closed keeps name and content),
   all keys are different (keys_ok): no name is used twice, no file is overwritten; every call returns normally *)
Theorem ts_recovery c m t0 off fl recs1 recs2 :
  tscfg c (CSize m) -> c_cap c = None -> tag_ok c -> ticks_ok (recs1 ++ recs2) ->
  (0 <= t0 + ts_e c off)%Z -> (t0 + telapsed (recs1 ++ recs2) + ts_e c off < sec_max)%Z ->
  (N.of_nat (length (recs1 ++ recs2)) <= usize_max)%N ->
  let x1 := fst (run (fsys t0 off fl) (OStart c :: tops recs1)) in
  let r2 := run (fsys t0 off fl) (OStart c :: tops (recs1 ++ recs2)) in
  let '(st1, _, _) := simts_st (c_append c) m t0 (ZInit None) fl recs1 in
  let '(st2, _, _) := simts_st (c_append c) m t0 (ZInit None) fl (recs1 ++ recs2) in
  all_false (wfaults (s_w x1)) ->
  ts_view_opt c (ts_e c off) (wfs (s_w x1)) (z_keys st1) (z_closed st1) (z_cur st1)
  /\ ts_view_opt c (ts_e c off) (wfs (s_w (fst r2))) (z_keys st2) (z_closed st2) (z_cur st2)
  /\ werrs (s_w (fst r2)) = werrs (s_w x1)
  /\ dir_stream (z_closed st2) (z_cur st2) = dir_stream (z_closed st1) (z_cur st1) ++ concat (List.map snd recs2)
  /\ zaview st2 = s_run m (zaview st1) (tops recs2)
  /\ zextends st1 st2
  /\ keys_ok (z_keys st2)
  /\ (recs2 <> [] -> exists keys closed ts d, st2 = ZCur keys closed ts d)
  /\ (forall o, In o (snd r2) -> exists rot, o = ObsRes 0 rot).
Proof.
  intros Hcfg Hcap T Ht Hlo Hhi Hmax. cbv zeta.
  pose proof Ht as Ht'. apply Forall_app in Ht'. destruct Ht' as [Ht1 Ht2].
  pose proof (telapsed_nonneg recs2 Ht2) as Hn2. rewrite telapsed_app in Hhi. rewrite app_length in Hmax.
  pose proof (faults_timestamps_st c m t0 off fl recs1 Hcfg Hcap T Ht1 Hlo ltac:(lia) ltac:(lia)) as F1.
  pose proof (faults_timestamps_st c m t0 off fl (recs1 ++ recs2) Hcfg Hcap T Ht Hlo
                ltac:(rewrite telapsed_app; lia) ltac:(rewrite app_length; lia)) as F2.
  pose proof (ts_recovery_st (c_append c) m t0 fl recs1 recs2 Ht) as R.
  cbv zeta in F1, F2.
  destruct (simts_st (c_append c) m t0 (ZInit None) fl recs1) as [[st1 e1] fl1].
  destruct (simts_st (c_append c) m t0 (ZInit None) fl (recs1 ++ recs2)) as [[st2 e2] fl2].
  destruct F1 as [V1 [_ [_ [He1 [Hf1 _]]]]]. destruct F2 as [V2 [_ [_ [He2 [_ O2]]]]].
  intros Hf. rewrite Hf1 in Hf. destruct (R Hf) as [-> [Hs [Hv [Hx [Zk Hc]]]]].
  split; [exact V1|]. split; [exact V2|]. split; [congruence|]. split; [exact Hs|]. split; [exact Hv|].
  split; [exact Hx|]. split; [exact (proj1 (z_ok_keys _ _ _ Zk))|]. split; [exact Hc | exact O2].
Qed.
Print Assumptions ts_recovery.

(* (4) for arbitrary further operations.  When the oracle has been used up and the writer is on rCURRENT (state ZCur - also
   with an over-full file, i.e. a rotation whose first steps failed), the state is related to the view (closed contents,
   current content), the keys and the time stamp by RelTK, the invariant of the fault-free development: whatever basic
   operations follow (writes, flushes, rotate(), clock ticks), they behave exactly as in a run without failures from that
   directory - the contents develop by the size rule s_run, the keys by kts_run (TsAsync), each write rotates iff the size
   rule says so.  (The state ZOld - renamed, no rCURRENT - is left by the next record, see ts_recovery.) *)
Theorem ts_recovery_ops c m t0 off fl recs ops :
  tscfg c (CSize m) -> c_cap c = None -> tag_ok c -> ticks_ok recs ->
  Forall basic_op ops -> Forall tick_ok ops ->
  (0 <= t0 + ts_e c off)%Z -> (t0 + telapsed recs + elapsed ops + ts_e c off < sec_max)%Z ->
  (N.of_nat (length recs + length ops) <= usize_max)%N ->
  let x := fst (run (fsys t0 off fl) (OStart c :: tops recs)) in
  let '(st, _, rest) := simts_st (c_append c) m t0 (ZInit None) fl recs in
  rest = [] -> forall keys closed ts d, st = ZCur keys closed ts d ->
    let kt := kts_run m (keys, ts) (Some (closed, d)) (t0 + telapsed recs) ops in
    RelTK c (CSize m) (ts_e c off) t0 (length recs) x (Some (closed, d)) keys ts
    /\ RelTK c (CSize m) (ts_e c off) t0 (length recs + length ops) (fst (run x ops)) (s_run m (Some (closed, d)) ops) (fst kt) (snd kt)
    /\ (forall i o b, nth_error ops i = Some o -> (o = OWrite b \/ o = OPlain b) ->
          nth_error (snd (run x ops)) i
          = Some (ObsRes 0 (m <? N.of_nat (length (cur_of (s_run m (Some (closed, d)) (firstn i ops)))))%N)).
Proof.
  intros Hcfg Hcap T Ht Hb Htk Hlo Hhi Hmax. cbv zeta.
  pose proof (telapsed_nonneg recs Ht) as Hn1. pose proof (elapsed_nonneg ops Htk) as Hn2.
  assert (Y : years_ok (ts_e c off) t0 (t0 + telapsed recs)) by (split; [assumption | lia]).
  pose proof (zfinv_start c m (ts_e c off) t0 t0 off fl eq_refl (Z.le_refl _)) as I0. fold (fsys t0 off fl) in I0.
  pose proof (zfrun c m (ts_e c off) t0 (t0 + telapsed recs) Hcfg Hcap T Y recs _ _ _ _ _ _ I0 Ht (Z.le_refl _) ltac:(lia)) as R.
  destruct (simts_st (c_append c) m t0 (ZInit None) fl recs) as [[st e'] fl'].
  destruct R as [x' [obs [R [I O]]]]. intros -> keys closed ts d ->.
  rewrite run_start, R. cbn [fst Nat.add] in I |- *.
  pose proof (zfinv_reltk c m (ts_e c off) t0 _ Y x' keys closed ts d _ _ _ I) as Rl.
  split; [exact Rl|].
  assert (Wn : wnow (s_w x') = (t0 + telapsed recs)%Z).
  { destruct I as [q [Ew [_ [_ [_ [_ [Hnow _]]]]]]]. rewrite Ew. exact Hnow. }
  assert (Y2 : years_ok (ts_e c off) t0 (t0 + telapsed recs + elapsed ops)) by (split; [assumption | lia]).
  pose proof (run_rel_ts_k c (CSize m) _ _ _ Hcfg T Y2 ops x' _ (keys, ts) (length recs) Rl Hb Htk ltac:(lia) ltac:(lia)) as [R1 [W1 Z1]].
  destruct (Z1 m eq_refl) as [E2 [E3 O2]]. rewrite E2, E3, Wn in R1.
  split; [exact R1|]. intros i o b Hi Hw. exact (O2 i o Hi b Hw).
Qed.
Print Assumptions ts_recovery_ops.

(* ------------------------------------------------------------------ the statement, computed on examples *)
Import String.StringSyntax.
Open Scope string_scope.
Definition zx_cfg (app : bool) (m : N) : config := ext_cfg (NumRestart.ex_sp "log") app (CSize m) None false.
Lemma zx_cfg_ok app m : tscfg (zx_cfg app m) (CSize m) /\ c_cap (zx_cfg app m) = None /\ tag_ok (zx_cfg app m).
Proof.
  split; [apply ext_cfg_ok; reflexivity|]. split; [reflexivity|].
  apply tag_free_ok; split; vm_compute; reflexivity.
Qed.

(* the run: the directory (name, kind, content; sorted by name), the time stamp of the naming state, the error channel,
   the rest of the oracle, and whether every operation returned normally *)
Definition zx_run (app : bool) (m : N) (fl : list bool) (recs : list (Z * bytes))
  : list (bytes * N * bytes) * option Z * list ecode * list bool * bool :=
  let r := run (fsys 0 0 fl) (OStart (zx_cfg app m) :: tops recs) in
  (snap_of (fst r), ns_ts_of (fst r), werrs (s_w (fst r)), wfaults (s_w (fst r)), forallb obs_normalb (snd r)).
(* the specification, as a directory *)
Definition zx_sim (app : bool) (m : N) (fl : list bool) (recs : list (Z * bytes))
  : list (bytes * N * bytes) * option Z * list ecode * list bool * bool :=
  let '(st, e, rest) := simts_st app m 0 (ZInit None) fl recs in
  (List.map (fun p => (kname (zx_cfg app m) 0 (fst p), 0%N, snd p)) (combine (z_keys st) (z_closed st))
   ++ match z_cur st with Some d => [(cname (zx_cfg app m), 0%N, d)] | None => [] end, z_ts st, e, rest, true).
Definition oz_eqb (a b : option Z) : bool :=
  match a, b with Some x, Some y => Z.eqb x y | None, None => true | _, _ => false end.
Definition zagree (app : bool) (m : N) (recs : list (Z * bytes)) (fl : list bool) : bool :=
  let '(d1, t1, e1, f1, ok1) := zx_run app m fl recs in
  let '(d2, t2, e2, f2, ok2) := zx_sim app m fl recs in
  leqb ent_eqb d1 d2 && oz_eqb t1 t2 && leqb ec_eqb e1 e2 && leqb Bool.eqb f1 f2 && Bool.eqb ok1 ok2.

Definition z00 := bs "app_r1970-01-01_00-00-00.log".
Definition z00r0 := bs "app_r1970-01-01_00-00-00.restart-0000.log".
Definition z01 := bs "app_r1970-01-01_00-00-01.log".
Definition z03 := bs "app_r1970-01-01_00-00-03.log".
Definition zC := bs "app_rCURRENT.log".

(* trecs5: "abcd" and "ef" in second 0, "gh" and "ijkl" in second 1, "mn" in second 3.  Size limit 3, no append: the first
   log call makes five fallible calls (read_dir, read_dir, rename, open, write); a rotation makes four (read_dir, read_dir,
   rename, open).  A closed file carries the second in which it was STARTED. *)
Example zx_none :
  simts false 3 0 [] trecs5 = ([(0%Z, 0); (0%Z, 1); (1%Z, 0)], [bs "abcd"; bs "efgh"; bs "ijkl"], Some (bs "mn"), [], [])
  /\ zx_run false 3 [] trecs5
     = ([(z00, 0%N, bs "abcd"); (z00r0, 0%N, bs "efgh"); (z01, 0%N, bs "ijkl"); (zC, 0%N, bs "mn")], Some 3%Z, [], [], true)
  /\ zx_sim false 3 [] trecs5 = zx_run false 3 [] trecs5.
Proof. repeat split; vm_compute; reflexivity. Qed.
(* (i) a listing of the rotation before "ef" fails: reported (ELogFile), "ef" goes into the over-full rCURRENT, the time stamp
   of the naming state is unchanged; the next record ("gh", second 1) rotates *)
Example zx_listing_of_rotation_fails :
  zx_run false 3 [F;F;F;F;F; F;T] trecs5
  = ([(z00, 0%N, bs "abcdef"); (z01, 0%N, bs "ghijkl"); (zC, 0%N, bs "mn")], Some 3%Z, [ELogFile], [], true)
  /\ zx_sim false 3 [F;F;F;F;F; F;T] trecs5 = zx_run false 3 [F;F;F;F;F; F;T] trecs5.
Proof. split; vm_compute; reflexivity. Qed.
(* ... the same when the rename fails *)
Example zx_rename_fails :
  zx_run false 3 [F;F;F;F;F; F;F;T] (firstn 2 trecs5) = ([(zC, 0%N, bs "abcdef")], Some 0%Z, [ELogFile], [], true)
  /\ zx_sim false 3 [F;F;F;F;F; F;F;T] (firstn 2 trecs5) = zx_run false 3 [F;F;F;F;F; F;F;T] (firstn 2 trecs5).
Proof. split; vm_compute; reflexivity. Qed.
(* (ii) THE HALF-FAILED ROTATION.  "ef" (second 0): rename done, open fails: reported (ELogFile); "ef" is written into the file
   that is now called r..00-00-00; there is NO rCURRENT.  "gh" (second 1): the second attempt - listing ok, but the open fails
   again: "gh" goes into the renamed file, too; the time stamp of the naming state is now 1 (the second of the failed
   attempt) - no file carries it *)
Example zx_open_fails :
  zx_run false 3 [F;F;F;F;F; F;F;F;T] (firstn 2 trecs5) = ([(z00, 0%N, bs "abcdef")], Some 0%Z, [ELogFile], [], true)
  /\ zx_run false 3 [F;F;F;F;F; F;F;F;T;F; F;F;F;T] (firstn 3 trecs5)
     = ([(z00, 0%N, bs "abcdefgh")], Some 1%Z, [ELogFile; ELogFile], [], true)
  /\ simts false 3 0 [F;F;F;F;F; F;F;F;T;F; F;F;F;T] (firstn 3 trecs5)
     = ([(0%Z, 0)], [bs "abcdefgh"], None, [ELogFile; ELogFile], [])
  /\ zx_sim false 3 [F;F;F;F;F; F;F;F;T] (firstn 2 trecs5) = zx_run false 3 [F;F;F;F;F; F;F;F;T] (firstn 2 trecs5)
  /\ zx_sim false 3 [F;F;F;F;F; F;F;F;T;F; F;F;F;T] (firstn 3 trecs5) = zx_run false 3 [F;F;F;F;F; F;F;F;T;F; F;F;F;T] (firstn 3 trecs5).
Proof. repeat split; vm_compute; reflexivity. Qed.
(* ... then no more failures: "ijkl" (second 1) completes the rotation: a new rCURRENT is created, nothing is renamed (the
   name r..00-00-00 is not used a second time, nothing is overwritten); the new rCURRENT carries the second of THIS attempt
   (1), under which it is closed before "mn" (second 3).  Nothing is lost: abcdefgh | ijkl | mn *)
Example zx_open_fails_then_recovers :
  zx_run false 3 [F;F;F;F;F; F;F;F;T;F; F;F;F;T] trecs5
  = ([(z00, 0%N, bs "abcdefgh"); (z01, 0%N, bs "ijkl"); (zC, 0%N, bs "mn")], Some 3%Z, [ELogFile; ELogFile], [], true)
  /\ zx_sim false 3 [F;F;F;F;F; F;F;F;T;F; F;F;F;T] trecs5 = zx_run false 3 [F;F;F;F;F; F;F;F;T;F; F;F;F;T] trecs5.
Proof. split; vm_compute; reflexivity. Qed.
(* ... all in one second (limit 0: every record rotates): the renamed file is <ts>, the files closed after the recovery are
   <ts>.restart-0000, <ts>.restart-0001: the counter goes on, no name twice *)
Example zx_open_fails_same_second :
  zx_run false 0 [F;F;F;F;F; F;F;F;T] [(0%Z, bs "a"); (0%Z, bs "b"); (0%Z, bs "c"); (0%Z, bs "d"); (0%Z, bs "e")]
  = ([(z00, 0%N, bs "ab"); (z00r0, 0%N, bs "c"); (bs "app_r1970-01-01_00-00-00.restart-0001.log", 0%N, bs "d"); (zC, 0%N, bs "e")],
     Some 0%Z, [ELogFile], [], true)
  /\ zx_sim false 0 [F;F;F;F;F; F;F;F;T] [(0%Z, bs "a"); (0%Z, bs "b"); (0%Z, bs "c"); (0%Z, bs "d"); (0%Z, bs "e")]
     = zx_run false 0 [F;F;F;F;F; F;F;F;T] [(0%Z, bs "a"); (0%Z, bs "b"); (0%Z, bs "c"); (0%Z, bs "d"); (0%Z, bs "e")].
Proof. split; vm_compute; reflexivity. Qed.
(* (iii) a listing of the initialisation fails: "abcd" is lost and reported (EWrite); the next record initialises again *)
Example zx_init_fails :
  zx_run false 3 [T] trecs5 = ([(z00, 0%N, bs "efgh"); (z01, 0%N, bs "ijkl"); (zC, 0%N, bs "mn")], Some 3%Z, [EWrite], [], true)
  /\ zx_sim false 3 [T] trecs5 = zx_run false 3 [T] trecs5.
Proof. split; vm_compute; reflexivity. Qed.
(* with append the calls of the initialisation are open, metadata: when metadata fails the created (empty) rCURRENT stays; the
   next initialisation - five seconds later - continues it; its birth time (second 0) is the time stamp under which it is
   closed *)
Example zx_metadata_fails :
  zx_run true 3 [F;T] [(0%Z, bs "abcd")] = ([(zC, 0%N, [])], None, [EWrite], [], true)
  /\ zx_run true 3 [F;T] [(0%Z, bs "abcd"); (5%Z, bs "efgh"); (0%Z, bs "i")]
     = ([(z00, 0%N, bs "efgh"); (zC, 0%N, bs "i")], Some 5%Z, [EWrite], [], true)
  /\ zx_sim true 3 [F;T] [(0%Z, bs "abcd")] = zx_run true 3 [F;T] [(0%Z, bs "abcd")]
  /\ zx_sim true 3 [F;T] [(0%Z, bs "abcd"); (5%Z, bs "efgh"); (0%Z, bs "i")] = zx_run true 3 [F;T] [(0%Z, bs "abcd"); (5%Z, bs "efgh"); (0%Z, bs "i")].
Proof. repeat split; vm_compute; reflexivity. Qed.
(* (iv) the write fails: the record is lost and reported (EWrite) *)
Example zx_write_fails :
  zx_run false 3 [F;F;F;F;T] trecs5 = ([(z00, 0%N, bs "efgh"); (z01, 0%N, bs "ijkl"); (zC, 0%N, bs "mn")], Some 3%Z, [EWrite], [], true)
  /\ zx_sim false 3 [F;F;F;F;T] trecs5 = zx_run false 3 [F;F;F;F;T] trecs5.
Proof. split; vm_compute; reflexivity. Qed.
(* one log call, two reports: the open of the rotation fails (ELogFile) and then the write into the renamed file fails
   (EWrite): one record lost *)
Example zx_two_reports :
  zx_run false 3 [F;F;F;F;F; F;F;F;T;T] trecs5
  = ([(z00, 0%N, bs "abcd"); (z01, 0%N, bs "ghijkl"); (zC, 0%N, bs "mn")], Some 3%Z, [ELogFile; EWrite], [], true)
  /\ zx_sim false 3 [F;F;F;F;F; F;F;F;T;T] trecs5 = zx_run false 3 [F;F;F;F;F; F;F;F;T;T] trecs5.
Proof. split; vm_compute; reflexivity. Qed.

(* ------------------------------------------------------------------ agreement of run and specification, from the theorem *)
(* a directory that consists of the files of the keys and - if there is one - rCURRENT, the names in ascending order, is read
   as the list of these files *)
Definition zfiles (c : config) (e : Z) (keys : list key) (conts : list bytes) (ocur : option bytes) : list entry :=
  kfiles c e keys conts ++ match ocur with Some d => [(cname c, 0%N, d)] | None => [] end.

Lemma ts_view_snap c e f keys conts ocur : ts_view_opt c e f keys conts ocur ->
  ascending (List.map ent_name (zfiles c e keys conts ocur)) = true -> snap_list f = zfiles c e keys conts ocur.
Proof.
  unfold zfiles. destruct ocur as [d|]; cbn [ts_view_opt]; [|rewrite app_nil_r; apply tsd_view_snap].
  intros [El [Hk [[j [Lj [Pj Cj]]] [Hon Hnd]]]] Asc. apply snap_list_exact; [exact Hnd | exact Asc | |].
  - intros a Ia. apply in_app_or in Ia. destruct Ia as [Ia|[<-|[]]]; [exact (kfiles_there c e f keys conts El Hk a Ia)|].
    cbn [ent_name fst]. split; [apply dir_names_lookup; eauto|]. rewrite (snap_entry_plain f _ j Lj Pj), Cj. reflexivity.
  - intros n j' Ln. rewrite map_app. apply in_or_app. destruct (Hon n j' Ln) as [->|[i [Hi ->]]]; [right; left; reflexivity | left].
    exact (in_map ent_name _ _ (kfiles_nth c e keys conts i El Hi)).
Qed.

Lemma oz_eqb_refl a : oz_eqb a a = true.
Proof. destruct a; [apply Z.eqb_refl | reflexivity]. Qed.

(* the names of the specification's directory are in ascending order: this concerns the specification alone *)
Definition zx_sorted (app : bool) (m : N) (recs : list (Z * bytes)) (fl : list bool) : bool :=
  ascending (List.map ent_name (fst (fst (fst (fst (zx_sim app m fl recs)))))).

(* run and specification agree wherever faults_timestamps_st applies and the names are in ascending order *)
Theorem zagree_holds app m recs fl : ticks_ok recs -> (telapsed recs < sec_max)%Z -> (N.of_nat (length recs) <= usize_max)%N ->
  zx_sorted app m recs fl = true -> zagree app m recs fl = true.
Proof.
  intros Ht Hhi Hmax Hs. destruct (zx_cfg_ok app m) as [Hcfg [Hcap Htag]].
  pose proof (faults_timestamps_st (zx_cfg app m) m 0 0 fl recs Hcfg Hcap Htag Ht (Z.le_refl 0) ltac:(cbn; lia) Hmax) as Fr.
  cbv zeta in Fr. change (c_append (zx_cfg app m)) with app in Fr. change (ts_e (zx_cfg app m) 0) with 0%Z in Fr.
  unfold zx_sorted, zx_sim in Hs. unfold zagree, zx_run, zx_sim.
  destruct (simts_st app m 0 (ZInit None) fl recs) as [[st e'] rest]. cbn [fst] in Hs.
  destruct Fr as [V [Tn [_ [He [Hf O]]]]].
  rewrite snap_of_list, (ts_view_snap _ _ _ _ _ _ V Hs), Tn, He, Hf, (obs_normalb_all _ O).
  rewrite (leqb_refl ent_eqb ent_eqb_refl), oz_eqb_refl, (leqb_refl ec_eqb ec_eqb_refl), (leqb_refl Bool.eqb Bool.eqb_reflx). reflexivity.
Qed.

Lemma zagree_all app m recs ls : ticks_ok recs -> (telapsed recs < sec_max)%Z -> (N.of_nat (length recs) <= usize_max)%N ->
  forallb (zx_sorted app m recs) ls = true -> forallb (zagree app m recs) ls = true.
Proof.
  intros Ht Hhi Hmax Hs. rewrite forallb_forall in *. intros fl Ifl. exact (zagree_holds app m recs fl Ht Hhi Hmax (Hs fl Ifl)).
Qed.

(* run and specification agree (directory, time stamp of the naming state, error codes, rest of the oracle, normal returns)
   on ALL fault oracles up to length 8 (511 oracles) for six settings, and on all oracles of the form F^5 ++ l, l up to
   length 10, for two settings with limit 0 and 1 (several files per second; the failures hit the second and third
   rotation); empty records included.  What is evaluated is the order of the specification's names. *)
Definition zrecs1 : list (Z * bytes) := [(0%Z, bs "abcd"); (3%Z, bs ""); (0%Z, bs "efgh"); (0%Z, bs ""); (1%Z, bs "i")].
Example zx_agree_all :
  forallb (zagree false 3 trecs5) (all_lists 8) = true
  /\ forallb (zagree true 3 trecs5) (all_lists 8) = true
  /\ forallb (zagree true 0 trecs0) (all_lists 8) = true
  /\ forallb (zagree false 0 trecs0) (all_lists 8) = true
  /\ forallb (zagree true 1 zrecs1) (all_lists 8) = true
  /\ forallb (zagree false 1 zrecs1) (all_lists 8) = true
  /\ forallb (zagree false 0 trecs0) (List.map (fun l => [F;F;F;F;F] ++ l) (all_lists 10)) = true
  /\ forallb (zagree false 1 zrecs1) (List.map (fun l => [F;F;F;F;F] ++ l) (all_lists 10)) = true.
Proof.
  destruct trecs5_ticks as [T5 T0]. assert (T1 : ticks_ok zrecs1) by (repeat constructor; cbn; lia).
  repeat apply conj; apply zagree_all; try assumption; vm_compute; (reflexivity || discriminate).
Qed.

(* ------------------------------------------------------------------ instances of the theorems (non-vacuity) *)
Definition zx_fl : list bool := [F;F;F;F;F; F;F;F;T;F; F;F;F;T].
Lemma zx_hyps n : n <= 5 ->
  ticks_ok (firstn n trecs5) /\ (0 <= 0 + ts_e (zx_cfg false 3) 0)%Z
  /\ (0 + telapsed (firstn n trecs5) + ts_e (zx_cfg false 3) 0 < sec_max)%Z /\ (N.of_nat (length (firstn n trecs5)) <= usize_max)%N.
Proof.
  intros Hn. assert (C : n = 0 \/ n = 1 \/ n = 2 \/ n = 3 \/ n = 4 \/ n = 5) by lia.
  destruct C as [->|[->|[->|[->|[->| ->]]]]]; (split; [repeat constructor; cbn; lia|]); vm_compute; repeat split; discriminate.
Qed.

(* faults_timestamps on the half-failed rotation: after three records the directory is the one file r..00-00-00 with
   "abcdefgh", no rCURRENT, two ELogFile reports *)
Example zx_instance_faults :
  let r := run (fsys 0 0 zx_fl) (OStart (zx_cfg false 3) :: tops (firstn 3 trecs5)) in
  ts_view_opt (zx_cfg false 3) 0 (wfs (s_w (fst r))) [(0%Z, 0)] [bs "abcdefgh"] None
  /\ werrs (s_w (fst r)) = [ELogFile; ELogFile] /\ wfaults (s_w (fst r)) = [] /\ ns_ts_of (fst r) = Some 1%Z.
Proof.
  destruct (zx_cfg_ok false 3) as [H1 [H2 H3]]. destruct (zx_hyps 3 ltac:(lia)) as [H4 [H5 [H6 H7]]].
  pose proof (faults_timestamps (zx_cfg false 3) 3 0 0 zx_fl (firstn 3 trecs5) H1 H2 H3 H4 H5 H6 H7) as F0.
  pose proof (faults_timestamps_st (zx_cfg false 3) 3 0 0 zx_fl (firstn 3 trecs5) H1 H2 H3 H4 H5 H6 H7) as F1.
  cbv zeta in F0, F1 |- *.
  change (simts (c_append (zx_cfg false 3)) 3 0 zx_fl (firstn 3 trecs5))
    with ([(0%Z, 0)], [bs "abcdefgh"], @None bytes, [ELogFile; ELogFile], @nil bool) in F0.
  change (simts_st (c_append (zx_cfg false 3)) 3 0 (ZInit None) zx_fl (firstn 3 trecs5))
    with (ZOld [(0%Z, 0)] [] 1%Z (bs "abcdefgh"), [ELogFile; ELogFile], @nil bool) in F1.
  destruct F0 as [_ [V [_ [_ [He [Hf _]]]]]]. destruct F1 as [_ [Tn _]].
  split; [exact V|]. split; [exact He|]. split; [exact Hf | exact Tn].
Qed.

(* ts_loss_is_reported: the oracle zx_fl ++ [F; F;F;F;F;T] on the five records - the write of
   "ijkl" (the record that completes the rotation) fails: four records kept, one EWrite; "mn" goes into the new, empty
   rCURRENT *)
Example zx_instance_loss :
  let x := fst (run (fsys 0 0 (zx_fl ++ [F; F;F;F;F;T])) (OStart (zx_cfg false 3) :: tops trecs5)) in
  exists keys conts ocur kept,
    ts_view_opt (zx_cfg false 3) 0 (wfs (s_w x)) keys conts ocur /\ keys_ok keys
    /\ dir_stream conts ocur = concat kept /\ Subseq kept (List.map snd trecs5)
    /\ length trecs5 = length kept + nlost (werrs (s_w x))
    /\ nlost (werrs (s_w x)) <= length (werrs (s_w x))
    /\ (forall e, In e (werrs (s_w x)) -> e = EWrite \/ e = ELogFile).
Proof.
  destruct (zx_cfg_ok false 3) as [H1 [H2 H3]]. destruct (zx_hyps 5 ltac:(lia)) as [H4 [H5 [H6 H7]]].
  exact (ts_loss_is_reported (zx_cfg false 3) 3 0 0 (zx_fl ++ [F; F;F;F;F;T]) trecs5 H1 H2 H3 H4 H5 H6 H7).
Qed.
Example zx_instance_loss_values :
  zx_run false 3 (zx_fl ++ [F; F;F;F;F;T]) trecs5
  = ([(z00, 0%N, bs "abcdefgh"); (zC, 0%N, bs "mn")], Some 1%Z, [ELogFile; ELogFile; EWrite], [], true)
  /\ List.map t_kept (tracez false 3 0 (ZInit None) (zx_fl ++ [F; F;F;F;F;T]) trecs5) = [bs "abcd"; bs "ef"; bs "gh"; []; bs "mn"]
  /\ List.map t_used (tracez false 3 0 (ZInit None) (zx_fl ++ [F; F;F;F;F;T]) trecs5) = [[F;F;F;F;F]; [F;F;F;T;F]; [F;F;F;T;F]; [F;F;F;F;T]; []].
Proof. repeat split; vm_compute; reflexivity. Qed.

(* ts_recovery: recs1 = the first three records (the oracle zx_fl is used up, the writer is on the renamed file), recs2 =
   the other two *)
Example zx_instance_recovery :
  let '(st1, _, rest1) := simts_st false 3 0 (ZInit None) zx_fl (firstn 3 trecs5) in
  let '(st2, _, _) := simts_st false 3 0 (ZInit None) zx_fl (firstn 3 trecs5 ++ skipn 3 trecs5) in
  rest1 = [] /\ st1 = ZOld [(0%Z, 0)] [] 1%Z (bs "abcdefgh")
  /\ st2 = ZCur [(0%Z, 0); (1%Z, 0)] [bs "abcdefgh"; bs "ijkl"] 3%Z (bs "mn")
  /\ zaview st2 = s_run 3 (zaview st1) (tops (skipn 3 trecs5)).
Proof. vm_compute. repeat split. Qed.
Example zx_instance_recovery_run :
  let x1 := fst (run (fsys 0 0 zx_fl) (OStart (zx_cfg false 3) :: tops (firstn 3 trecs5))) in
  let r2 := run (fsys 0 0 zx_fl) (OStart (zx_cfg false 3) :: tops (firstn 3 trecs5 ++ skipn 3 trecs5)) in
  ts_view_opt (zx_cfg false 3) 0 (wfs (s_w x1)) [(0%Z, 0)] [bs "abcdefgh"] None
  /\ ts_view_opt (zx_cfg false 3) 0 (wfs (s_w (fst r2))) [(0%Z, 0); (1%Z, 0)] [bs "abcdefgh"; bs "ijkl"] (Some (bs "mn"))
  /\ werrs (s_w (fst r2)) = werrs (s_w x1).
Proof.
  destruct (zx_cfg_ok false 3) as [H1 [H2 H3]]. destruct (zx_hyps 5 ltac:(lia)) as [H4 [H5 [H6 H7]]].
  pose proof (ts_recovery (zx_cfg false 3) 3 0 0 zx_fl (firstn 3 trecs5) (skipn 3 trecs5) H1 H2 H3 H4 H5 H6 H7) as R.
  cbv zeta in R |- *.
  change (simts_st (c_append (zx_cfg false 3)) 3 0 (ZInit None) zx_fl (firstn 3 trecs5))
    with (ZOld [(0%Z, 0)] [] 1%Z (bs "abcdefgh"), [ELogFile; ELogFile], @nil bool) in R.
  change (simts_st (c_append (zx_cfg false 3)) 3 0 (ZInit None) zx_fl (firstn 3 trecs5 ++ skipn 3 trecs5))
    with (ZCur [(0%Z, 0); (1%Z, 0)] [bs "abcdefgh"; bs "ijkl"] 3%Z (bs "mn"), [ELogFile; ELogFile], @nil bool) in R.
  assert (Hf : all_false (wfaults (s_w (fst (run (fsys 0 0 zx_fl) (OStart (zx_cfg false 3) :: tops (firstn 3 trecs5))))))).
  { vm_compute. intros f []. }
  destruct (R Hf) as [V1 [V2 [He _]]]. split; [exact V1|]. split; [exact V2 | exact He].
Qed.

(* ts_recovery_ops: an instance of its hypotheses - the oracle used up, the writer on rCURRENT, a rotation pending *)
Example zx_instance_ops :
  let '(st, e, rest) := simts_st false 3 0 (ZInit None) [F;F;F;F;F; F;F;T] (firstn 2 trecs5) in
  rest = [] /\ st = ZCur [] [] 0%Z (bs "abcdef") /\ e = [ELogFile].
Proof. vm_compute. repeat split. Qed.
(* ts_lost_only_around_failures on the run of zx_instance_loss *)
Example zx_instance_trace :
  let x := fst (run (fsys 0 0 (zx_fl ++ [F; F;F;F;F;T])) (OStart (zx_cfg false 3) :: tops trecs5)) in
  let t := tracez false 3 0 (ZInit None) (zx_fl ++ [F; F;F;F;F;T]) trecs5 in
  exists keys conts ocur,
    ts_view_opt (zx_cfg false 3) 0 (wfs (s_w x)) keys conts ocur /\ keys_ok keys
    /\ dir_stream conts ocur = concat (List.map t_kept t)
    /\ werrs (s_w x) = concat (List.map t_errs t)
    /\ (forall e, In e t -> t_kept e <> t_rec e -> In true (t_used e) /\ In EWrite (t_errs e)).
Proof.
  destruct (zx_cfg_ok false 3) as [H1 [H2 H3]]. destruct (zx_hyps 5 ltac:(lia)) as [H4 [H5 [H6 H7]]].
  destruct (ts_lost_only_around_failures (zx_cfg false 3) 3 0 0 (zx_fl ++ [F; F;F;F;F;T]) trecs5 H1 H2 H3 H4 H5 H6 H7)
    as [keys [conts [ocur [V [K [S1 [_ [S3 [_ [_ [_ S7]]]]]]]]]]].
  exists keys, conts, ocur. auto.
Qed.

(* ts_recovery_ops: after "abcd", "ef" with a failing rename (oracle used up, rCURRENT over-full, writer on rCURRENT) the
   operations write "gh" / tick / write "i" behave as without failures: the first write rotates, the second does not *)
Example zx_instance_ops_run :
  let x := fst (run (fsys 0 0 [F;F;F;F;F; F;F;T]) (OStart (zx_cfg false 3) :: tops (firstn 2 trecs5))) in
  let ops := [OWrite (bs "gh"); OTick 1; OWrite (bs "i")] in
  RelTK (zx_cfg false 3) (CSize 3) 0 0 (2 + 3) (fst (run x ops)) (Some ([bs "abcdef"], bs "ghi")) [(0%Z, 0)] 0%Z
  /\ nth_error (snd (run x ops)) 0 = Some (ObsRes 0 true) /\ nth_error (snd (run x ops)) 2 = Some (ObsRes 0 false).
Proof.
  destruct (zx_cfg_ok false 3) as [H1 [H2 H3]]. destruct (zx_hyps 2 ltac:(lia)) as [H4 [H5 _]].
  assert (Hb : Forall basic_op [OWrite (bs "gh"); OTick 1; OWrite (bs "i")]) by (repeat constructor).
  assert (Htk : Forall tick_ok [OWrite (bs "gh"); OTick 1; OWrite (bs "i")]) by (repeat constructor; cbn; lia).
  pose proof (ts_recovery_ops (zx_cfg false 3) 3 0 0 [F;F;F;F;F; F;F;T] (firstn 2 trecs5) [OWrite (bs "gh"); OTick 1; OWrite (bs "i")]
                H1 H2 H3 H4 Hb Htk H5 ltac:(vm_compute; reflexivity) ltac:(vm_compute; discriminate)) as R.
  cbv zeta in R |- *.
  change (simts_st (c_append (zx_cfg false 3)) 3 0 (ZInit None) [F;F;F;F;F; F;F;T] (firstn 2 trecs5))
    with (ZCur [] [] 0%Z (bs "abcdef"), [ELogFile], @nil bool) in R.
  destruct (R eq_refl [] [] 0%Z (bs "abcdef") eq_refl) as [_ [R2 O]].
  split; [exact R2|].
  split; [exact (O 0 _ (bs "gh") eq_refl (or_introl eq_refl)) | exact (O 2 _ (bs "i") eq_refl (or_introl eq_refl))].
Qed.
