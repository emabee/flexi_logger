(* Timestamps naming (rCURRENT + r<time stamp>[.restart-NNNN]): the invariant that ties the concrete state to the
   abstract reader's view (closed files in the order of their closing, current content ++ pending bytes), and the steps
   of a writer on the level of that invariant, each with the roll state it leaves. *)
Require Import FL.Base.Bytes FL.Base.BytesFacts FL.Base.PathName FL.Fs.Fs FL.Fs.FsFacts FL.Time.Civil FL.Time.TsFormat
  FL.Names.FileSpec FL.Names.NamesFacts FL.Names.SortFacts FL.Flw.Model FL.Flw.ModelFacts FL.Flw.QuietFacts FL.Flw.NumFs FL.Flw.NumInv
  FL.Flw.NumListing FL.Flw.TsCal FL.Flw.TsTime FL.Flw.TsNames.
Open Scope nat_scope.

(* ------------------------------------------------------------------ the sequence of keys *)
Definition count (t : Z) (l : list key) : nat := length (filter (fun k => Z.eqb (fst k) t) l).

(* each new key carries the second of the file's creation - not earlier than any before - and the number of
   earlier files of the same second *)
Inductive keys_ok : list key -> Prop :=
| ko_nil : keys_ok []
| ko_snoc l t : keys_ok l -> (forall k, In k l -> (fst k <= t)%Z) -> keys_ok (l ++ [(t, count t l)]).

Lemma count_app t l1 l2 : count t (l1 ++ l2) = count t l1 + count t l2.
Proof. unfold count. rewrite filter_app, app_length. reflexivity. Qed.
Lemma count_one t k : count t [k] = if Z.eqb (fst k) t then 1 else 0.
Proof. unfold count. cbn [filter]. destruct (Z.eqb (fst k) t); reflexivity. Qed.
Lemma count_le_length t l : count t l <= length l.
Proof. unfold count. induction l as [|k l IH]; cbn [filter length]; [lia|]. destruct (Z.eqb (fst k) t); cbn [length]; lia. Qed.

(* the keys of one second are exactly (t,0) .. (t, count-1) *)
Lemma keys_count l : keys_ok l -> forall t m, In (t, m) l <-> m < count t l.
Proof.
  induction 1 as [|l t0 Hl IH Hle]; intros t m.
  - cbn. split; [tauto | lia].
  - rewrite in_app_iff, count_app, count_one, IH. cbn [In fst].
    destruct (Z.eqb_spec t0 t) as [->|Hne].
    + split; [intros [H|[H|[]]]; [lia | injection H as <-; lia] | intros H].
      destruct (Nat.eq_dec m (count t l)) as [->|]; [right; left; reflexivity | left; lia].
    + split; [intros [H|[H|[]]]; [lia | congruence] | intros H; left; lia].
Qed.

Definition klt (a b : key) : Prop := (fst a < fst b)%Z \/ (fst a = fst b /\ snd a < snd b).
Definition kd : key := (0%Z, 0).

(* the order of closing is the strict order of (second, position) ... *)
Lemma keys_sorted l : keys_ok l -> forall i j, i < j < length l -> klt (nth i l kd) (nth j l kd).
Proof.
  induction 1 as [|l t0 Hl IH Hle]; intros i j Hij; [cbn in Hij; lia|].
  rewrite app_length in Hij. cbn [length] in Hij.
  destruct (Nat.eq_dec j (length l)) as [->|Hj].
  - rewrite (app_nth1 l _ kd) by lia. rewrite app_nth2, Nat.sub_diag by lia. cbn [nth].
    assert (Ii : In (nth i l kd) l) by (apply nth_In; lia). pose proof (Hle _ Ii) as Hle'.
    unfold klt. cbn [fst snd]. destruct (Z.eq_dec (fst (nth i l kd)) t0) as [E|N]; [right | left; lia].
    split; [exact E|]. apply (keys_count l Hl). rewrite <- E. destruct (nth i l kd); exact Ii.
  - rewrite !(app_nth1 l _ kd) by lia. apply IH. lia.
Qed.

(* ... and within one second the positions are 0, 1, 2, .. without gaps *)
Lemma keys_position l : keys_ok l -> forall i, i < length l -> snd (nth i l kd) = count (fst (nth i l kd)) (firstn i l).
Proof.
  induction 1 as [|l t0 Hl IH Hle]; intros i Hi; [cbn in Hi; lia|].
  rewrite app_length in Hi. cbn [length] in Hi.
  destruct (Nat.eq_dec i (length l)) as [->|Hne].
  - rewrite app_nth2, Nat.sub_diag by lia. cbn [nth fst snd].
    rewrite firstn_app, Nat.sub_diag, firstn_all. cbn [firstn]. rewrite app_nil_r. reflexivity.
  - rewrite (app_nth1 l _ kd) by lia. rewrite firstn_app. replace (i - length l) with 0 by lia. cbn [firstn]. rewrite app_nil_r.
    apply IH. lia.
Qed.

Lemma klt_irrefl a : ~ klt a a.
Proof. unfold klt. lia. Qed.

(* no key twice *)
Lemma keys_distinct l : keys_ok l -> forall i j, i < length l -> j < length l -> nth i l kd = nth j l kd -> i = j.
Proof.
  intros Hl i j Hi Hj E. destruct (Nat.lt_trichotomy i j) as [H|[H|H]]; [exfalso|exact H|exfalso].
  - pose proof (keys_sorted l Hl i j ltac:(lia)) as X. rewrite E in X. exact (klt_irrefl _ X).
  - pose proof (keys_sorted l Hl j i ltac:(lia)) as X. rewrite E in X. exact (klt_irrefl _ X).
Qed.

(* ------------------------------------------------------------------ no directory entry twice *)
Lemma dir_names_filter f (p : bytes -> bool) :
  List.map fst (filter (fun q : bytes * nat => p (fst q)) (names f)) = filter p (dir_names f).
Proof. unfold dir_names. induction (names f) as [|[n j] l IH]; cbn [filter List.map fst]; [reflexivity|].
  destruct (p n); cbn [List.map fst]; rewrite IH; reflexivity. Qed.

Lemma rename_nodup f a b f1 : NoDup (dir_names f) -> rename f a b = Some f1 -> NoDup (dir_names f1).
Proof.
  intros H E. unfold rename in E. destruct (lookup f a) as [i|]; [|discriminate]. injection E as <-.
  unfold dir_names at 1. cbn [names List.map fst].
  rewrite (dir_names_filter f (fun n => negb (beq n a) && negb (beq n b))). constructor.
  - intros I. apply filter_In in I. destruct I as [_ I]. rewrite beq_refl, andb_false_r in I. discriminate.
  - apply NoDup_filter. exact H.
Qed.

Lemma create_nodup f a gz now : NoDup (dir_names f) -> lookup f a = None -> NoDup (dir_names (fst (create_file f a gz now))).
Proof.
  intros H L. unfold create_file, dir_names. cbn [fst names List.map]. constructor; [|exact H].
  intros I. apply (proj1 (dir_names_lookup f a)) in I. destruct I as [j Lj]. congruence.
Qed.

(* ------------------------------------------------------------------ configurations and the invariant *)
(* Timestamps naming, no cleanup, no start-time part, no symlink, synchronous; use_utc either way *)
Definition tscfg (c : config) (crit : criterion) : Prop :=
  c_rot c = Some (crit, NTimestamps, KNever) /\ fts (c_spec c) = false /\ c_symlink c = false /\ c_async c = false.

(* the offset that enters the time-stamp text *)
Definition eoff (c : config) (w : world) : Z := if c_utc c then 0%Z else woff w.

Lemma infix_from_ts_tsx c w t : infix_from_ts c w std_fmt t = tsx (eoff c w) t.
Proof. unfold infix_from_ts, eoff, tsx, local_civil. destruct (c_utc c); [rewrite Z.add_0_r|]; reflexivity. Qed.

(* the seconds lo .. hi lie in the years 1970..9999 (as seen through the offset) *)
Definition years_ok (e lo hi : Z) : Prop := (0 <= lo + e)%Z /\ (hi + e < sec_max)%Z.
Lemma years_in e lo hi t : years_ok e lo hi -> (lo <= t <= hi)%Z -> in_years e t.
Proof. unfold years_ok, in_years. lia. Qed.

Record TsInv (c : config) (e lo : Z) (w : world) (wr : writer) (keys : list key) (closed : list bytes) (ts : Z) : Prop := {
  ti_quiet : quiet w;
  ti_wf : fs_wf (wfs w);
  ti_nodup : NoDup (dir_names (wfs w));
  ti_off : eoff c w = e;
  ti_cur : lookup (wfs w) (cname c) = Some (wino wr);
  ti_curplain : plain (inode (wfs w) (wino wr));
  ti_len : length keys = length closed;
  ti_closed : forall i, i < length closed ->
      exists j, lookup (wfs w) (kname c e (nth i keys kd)) = Some j /\ plain (inode (wfs w) j) /\ content (wfs w) j = nth i closed []
                /\ j <> wino wr;
  ti_only : forall n j, lookup (wfs w) n = Some j -> n = cname c \/ exists i, i < length closed /\ n = kname c e (nth i keys kd);
  ti_keys : keys_ok keys;
  ti_range : forall k, In k keys -> (lo <= fst k <= ts)%Z;
  ti_ts : (lo <= ts <= wnow w)%Z;
  ti_wr : wr_ok wr;
  ti_cap : wcap wr = c_cap c }.

(* the same in a directory that also holds the files `extra` (name, content), none of them named like a file of the
   family; the writer may have another buffer capacity than the configuration says (after reopen it is an unbuffered File) *)
Record TsInvX (c : config) (e lo : Z) (w : world) (wr : writer) (keys : list key) (closed : list bytes) (ts : Z)
              (extra : list (bytes * bytes)) : Prop := {
  ux_quiet : quiet w;
  ux_wf : fs_wf (wfs w);
  ux_nodup : NoDup (dir_names (wfs w));
  ux_off : eoff c w = e;
  ux_cur : lookup (wfs w) (cname c) = Some (wino wr);
  ux_curplain : plain (inode (wfs w) (wino wr));
  ux_len : length keys = length closed;
  ux_closed : forall i, i < length closed ->
      exists j, lookup (wfs w) (kname c e (nth i keys kd)) = Some j /\ plain (inode (wfs w) j) /\ content (wfs w) j = nth i closed []
                /\ j <> wino wr;
  ux_extra : forall n d, In (n, d) extra ->
      exists j, lookup (wfs w) n = Some j /\ plain (inode (wfs w) j) /\ content (wfs w) j = d /\ j <> wino wr;
  ux_only : forall n j, lookup (wfs w) n = Some j ->
      n = cname c \/ (exists i, i < length closed /\ n = kname c e (nth i keys kd)) \/ In n (List.map fst extra);
  ux_fresh : forall n, In n (List.map fst extra) -> n <> cname c /\ forall k, in_years e (fst k) -> n <> kname c e k;
  ux_keys : keys_ok keys;
  ux_range : forall k, In k keys -> (lo <= fst k <= ts)%Z;
  ux_ts : (lo <= ts <= wnow w)%Z;
  ux_wr : wr_ok wr }.

Lemma tsinv_x c e lo w wr keys closed ts : TsInv c e lo w wr keys closed ts -> TsInvX c e lo w wr keys closed ts [].
Proof.
  intros [Q W Hnd Hoff Hc Hcp Hlen Hcl Hon Hko Hrg Htsr Hwr Hcap]. constructor; try assumption.
  - intros n d [].
  - intros n j H. destruct (Hon n j H) as [E|E]; [left; exact E | right; left; exact E].
  - intros n [].
Qed.

Lemma tsinvx_base c e lo w wr keys closed ts :
  TsInvX c e lo w wr keys closed ts [] -> wcap wr = c_cap c -> TsInv c e lo w wr keys closed ts.
Proof.
  intros [Q W Hnd Hoff Hc Hcp Hlen Hcl Hex Hon Hfr Hko Hrg Htsr Hwr] Hcap. constructor; try assumption.
  intros n j H. destruct (Hon n j H) as [E|[E|[]]]; [left; exact E | right; exact E].
Qed.

Definition st_ts (c : config) (ts : Z) (roll : roll_state) (wr : writer) : flw :=
  {| f_cfg := c; f_inner := Active (Some (mk_rs (NSTs ts (Some cur_infix) std_fmt) roll)) wr (cname c); f_poisoned := false |}.

Lemma tsinv_dir c e lo w wr keys closed ts : TsInv c e lo w wr keys closed ts -> dir_is c e (wfs w) keys.
Proof.
  intros I. split.
  - intros k Ik. destruct (In_nth keys k kd Ik) as [i [Hi E]]. rewrite (ti_len _ _ _ _ _ _ _ _ I) in Hi.
    destruct (ti_closed _ _ _ _ _ _ _ _ I i Hi) as [j [Lj [[_ Pd] _]]]. rewrite E in Lj. eauto.
  - intros n j L. destruct (ti_only _ _ _ _ _ _ _ _ I n j L) as [->|[i [Hi ->]]]; [left; reflexivity | right].
    exists (nth i keys kd). split; [apply nth_In; rewrite (ti_len _ _ _ _ _ _ _ _ I); exact Hi | reflexivity].
Qed.

Lemma tsinvx_years c e lo hi w wr keys closed ts extra :
  TsInvX c e lo w wr keys closed ts extra -> years_ok e lo hi -> (wnow w <= hi)%Z ->
  in_years e ts /\ forall k, In k keys -> in_years e (fst k).
Proof.
  intros I Y Hhi. pose proof (ux_ts _ _ _ _ _ _ _ _ _ I) as Hts. split.
  - apply (years_in e lo hi); [exact Y | lia].
  - intros k Ik. pose proof (ux_range _ _ _ _ _ _ _ _ _ I k Ik). apply (years_in e lo hi); [exact Y | lia].
Qed.

Lemma tsinv_years c e lo hi w wr keys closed ts :
  TsInv c e lo w wr keys closed ts -> years_ok e lo hi -> (wnow w <= hi)%Z ->
  in_years e ts /\ forall k, In k keys -> in_years e (fst k).
Proof. intros I. exact (tsinvx_years _ _ _ _ _ _ _ _ _ _ (tsinv_x _ _ _ _ _ _ _ _ I)). Qed.

Lemma tsinvx_next_free c e lo hi w wr keys closed ts extra :
  TsInvX c e lo w wr keys closed ts extra -> years_ok e lo hi -> (wnow w <= hi)%Z ->
  lookup (wfs w) (kname c e (ts, count ts keys)) = None.
Proof.
  intros I Y Hhi. destruct (tsinvx_years _ _ _ _ _ _ _ _ _ _ I Y Hhi) as [Yts Yk].
  destruct (lookup (wfs w) (kname c e (ts, count ts keys))) as [j|] eqn:E; [exfalso | reflexivity].
  destruct (ux_only _ _ _ _ _ _ _ _ _ I _ _ E) as [E1|[[i [Hi E1]]|E1]]; [exact (kname_not_cname c e (ts, count ts keys) Yts E1)| |].
  - rewrite <- (ux_len _ _ _ _ _ _ _ _ _ I) in Hi.
    apply kname_inj in E1; [|exact Yts | apply Yk, nth_In; exact Hi].
    assert (Ik : In (ts, count ts keys) keys) by (rewrite E1; apply nth_In; exact Hi).
    apply (keys_count keys (ux_keys _ _ _ _ _ _ _ _ _ I)) in Ik. lia.
  - exact (proj2 (ux_fresh _ _ _ _ _ _ _ _ _ I _ E1) (ts, count ts keys) Yts eq_refl).
Qed.

Lemma eoff_same_env c w w' : same_env w w' -> eoff c w' = eoff c w.
Proof. intros [_ [_ [O _]]]. unfold eoff. rewrite O. reflexivity. Qed.

Lemma same_env_now w w' : same_env w w' -> wnow w' = wnow w.
Proof. intros [_ [H _]]. exact H. Qed.

Lemma cur_view_append w w' wr wr' fl b :
  content (wfs w') (wino wr') = content (wfs w) (wino wr) ++ fl -> fl ++ wpend wr' = wpend wr ++ b ->
  cur_view w' wr' = cur_view w wr ++ b.
Proof. intros C Ep. unfold cur_view. rewrite C, <- !app_assoc, Ep. reflexivity. Qed.

(* after a rotation: reset_size_and_date reads the birth time of the new current file back *)
Definition reset_roll (roll : roll_state) (now : Z) : roll_state :=
  match roll with RSize m _ => RSize m 0 | RAge a _ => RAge a now | RAgeSize a _ m _ => RAgeSize a now m 0 end.

Lemma reset_size_and_date_eq w roll p : reset_size_and_date w roll p = reset_roll roll (birth_or_now w p).
Proof. destruct roll; reflexivity. Qed.

Lemma reset_roll_size roll now : roll_size_ok (reset_roll roll now) 0.
Proof. destruct roll; reflexivity. Qed.

Lemma roll_of_size crit k st : roll_size_ok (roll_of crit (N.of_nat k) st) k.
Proof. destruct crit; reflexivity. Qed.

(* ------------------------------------------------------------------ appending to the current inode keeps the invariant *)
Lemma tsinvx_append c e lo w w' wr wr' keys closed ts extra x :
  TsInvX c e lo w wr keys closed ts extra -> wfs w' = append_ino (wfs w) (wino wr) x -> same_env w w' ->
  wino wr' = wino wr -> wr_ok wr' ->
  TsInvX c e lo w' wr' keys closed ts extra /\ content (wfs w') (wino wr') = content (wfs w) (wino wr) ++ x.
Proof.
  intros [Q W Hnd Hoff Hc Hcp Hlen Hcl Hex Hon Hfr Hko Hrg Htsr Hwr] F SE Ei Hok.
  pose proof (wf_bound _ W _ _ Hc) as Hold.
  assert (Keep : forall j, j <> wino wr -> inode (wfs w') j = inode (wfs w) j).
  { intros j Hj. rewrite F, inode_append by assumption. destruct (Nat.eqb_spec j (wino wr)); [contradiction | reflexivity]. }
  split.
  - constructor.
    + exact (proj1 SE).
    + rewrite F. apply wf_append. exact W.
    + rewrite F. exact Hnd.
    + unfold eoff in *. destruct SE as [_ [_ [-> _]]]. exact Hoff.
    + rewrite F, lookup_append, Ei. exact Hc.
    + rewrite F, Ei, inode_append, Nat.eqb_refl by assumption. exact Hcp.
    + exact Hlen.
    + intros i Hi. destruct (Hcl i Hi) as [j [Lj [Pj [Cj Hj]]]]. exists j.
      unfold content. rewrite (Keep j Hj), Ei, F, lookup_append. auto.
    + intros n d Hin. destruct (Hex n d Hin) as [j [Lj [Pj [Cj Hj]]]]. exists j.
      unfold content. rewrite (Keep j Hj), Ei, F, lookup_append. auto.
    + intros n j. rewrite F, lookup_append. apply Hon.
    + exact Hfr.
    + exact Hko.
    + exact Hrg.
    + destruct SE as [_ [-> _]]. exact Htsr.
    + exact Hok.
  - rewrite F, Ei, content_append, Nat.eqb_refl by assumption. reflexivity.
Qed.

Lemma tsinv_append c e lo w w' wr wr' keys closed ts x :
  TsInv c e lo w wr keys closed ts -> wfs w' = append_ino (wfs w) (wino wr) x -> same_env w w' ->
  wino wr' = wino wr -> wcap wr' = wcap wr -> wr_ok wr' ->
  TsInv c e lo w' wr' keys closed ts /\ content (wfs w') (wino wr') = content (wfs w) (wino wr) ++ x.
Proof.
  intros I F SE Ei Ec Hok.
  destruct (tsinvx_append c e lo w w' wr wr' keys closed ts [] x (tsinv_x _ _ _ _ _ _ _ _ I) F SE Ei Hok) as [I' C'].
  split; [|exact C']. apply tsinvx_base; [exact I'|]. rewrite Ec. exact (ti_cap _ _ _ _ _ _ _ _ I).
Qed.

Definition born (w : world) (wr : writer) : Z := fborn (inode (wfs w) (wino wr)).

Definition TsInvB (c : config) (e lo : Z) (w : world) (wr : writer) (keys : list key) (closed : list bytes) (ts : Z) : Prop :=
  TsInv c e lo w wr keys closed ts /\ born w wr = ts.

Lemma born_birthx c e lo w wr keys closed ts extra :
  TsInvX c e lo w wr keys closed ts extra -> birth_or_now w (cname c) = born w wr.
Proof. intros I. unfold birth_or_now, file_of. rewrite (ux_cur _ _ _ _ _ _ _ _ _ I). reflexivity. Qed.

Lemma born_birth c e lo w wr keys closed ts : TsInvB c e lo w wr keys closed ts -> birth_or_now w (cname c) = ts.
Proof. intros [I B]. rewrite <- B. exact (born_birthx _ _ _ _ _ _ _ _ _ (tsinv_x _ _ _ _ _ _ _ _ I)). Qed.

Lemma born_appendx c e lo w w' wr wr' keys closed ts extra x :
  TsInvX c e lo w wr keys closed ts extra -> wfs w' = append_ino (wfs w) (wino wr) x -> wino wr' = wino wr ->
  born w' wr' = born w wr.
Proof.
  intros I F Ei.
  pose proof (wf_bound _ (ux_wf _ _ _ _ _ _ _ _ _ I) _ _ (ux_cur _ _ _ _ _ _ _ _ _ I)) as Hold.
  unfold born. rewrite F, Ei, inode_append, Nat.eqb_refl by assumption. reflexivity.
Qed.

Lemma born_append c e lo w w' wr wr' keys closed ts x :
  TsInv c e lo w wr keys closed ts -> wfs w' = append_ino (wfs w) (wino wr) x -> wino wr' = wino wr -> born w' wr' = born w wr.
Proof. intros I. exact (born_appendx _ _ _ _ _ _ _ _ _ _ _ _ (tsinv_x _ _ _ _ _ _ _ _ I)). Qed.

Lemma tsinvb_append c e lo w w' wr wr' keys closed ts x :
  TsInvB c e lo w wr keys closed ts -> wfs w' = append_ino (wfs w) (wino wr) x -> same_env w w' ->
  wino wr' = wino wr -> wcap wr' = wcap wr -> wr_ok wr' ->
  TsInvB c e lo w' wr' keys closed ts /\ content (wfs w') (wino wr') = content (wfs w) (wino wr) ++ x.
Proof.
  intros [I B] F SE Ei Ec Hok.
  destruct (tsinv_append c e lo w w' wr wr' keys closed ts x I F SE Ei Ec Hok) as [I' C'].
  split; [|exact C']. split; [exact I'|]. rewrite <- B. exact (born_append _ _ _ _ _ _ _ _ _ _ _ I F Ei).
Qed.

Lemma cfi_tsinv c e lo hi w wr keys closed ts :
  tag_ok c -> years_ok e lo hi -> TsInv c e lo w wr keys closed ts -> (wnow w <= hi)%Z ->
  (N.of_nat (length closed) <= usize_max)%N ->
  collision_free_infix (woff w) (c_spec c) (fixed0 c) (wfs w) (tsx e ts) = Some (Some (infix_of e (ts, count ts keys))).
Proof.
  intros T Y I Hhi Hmax. destruct (tsinv_years _ _ _ _ _ _ _ _ _ I Y Hhi) as [Yts Yk].
  apply (collision_free_infix_ts c e (woff w) (wfs w) keys ts (count ts keys) T Yts Yk (tsinv_dir _ _ _ _ _ _ _ _ I)
           (keys_count keys (ti_keys _ _ _ _ _ _ _ _ I) ts)).
  pose proof (count_le_length ts keys). pose proof (ti_len _ _ _ _ _ _ _ _ I). lia.
Qed.

(* rename rCURRENT to the name of the key (ts, number of closed files of the second ts), create a fresh rCURRENT at the
   time `wnow w`, the old writer flushes into the renamed inode *)
Lemma tsinvx_rotate c e lo hi w wr keys closed ts extra :
  TsInvX c e lo w wr keys closed ts extra -> years_ok e lo hi -> (wnow w <= hi)%Z ->
  exists f1, rename (wfs w) (cname c) (kname c e (ts, count ts keys)) = Some f1 /\ lookup f1 (cname c) = None /\
    forall w3, quiet w3 -> eoff c w3 = e -> wnow w3 = wnow w ->
      wfs w3 = append_ino (fst (create_file f1 (cname c) 0%N (wnow w))) (wino wr) (wpend wr) ->
      TsInvX c e lo w3 {| wino := snd (create_file f1 (cname c) 0%N (wnow w)); wpend := []; wcap := c_cap c |}
             (keys ++ [(ts, count ts keys)]) (closed ++ [cur_view w wr]) (wnow w) extra
      /\ born w3 {| wino := snd (create_file f1 (cname c) 0%N (wnow w)); wpend := []; wcap := c_cap c |} = wnow w
      /\ cur_view w3 {| wino := snd (create_file f1 (cname c) 0%N (wnow w)); wpend := []; wcap := c_cap c |} = [].
Proof.
  intros I Y Hhi.
  pose proof I as [Q W Hnd Hoff Hc Hcp Hlen Hcl Hex Hon Hfr Hko Hrg Htsr Hwr].
  destruct (tsinvx_years _ _ _ _ _ _ _ _ _ _ I Y Hhi) as [Yts Yk].
  pose proof (tsinvx_next_free _ _ _ _ _ _ _ _ _ _ I Y Hhi) as Ht.
  set (knew := (ts, count ts keys)) in *.
  destruct (rotate_fs_spec (wfs w) (cname c) (kname c e knew) (wino wr) (wpend wr) (wnow w) W
              (fun E => kname_not_cname c e knew Yts (eq_sym E)) Hc Ht) as [f1 [Er R]].
  cbn zeta in R. destruct R as [L1c [Hino1 [W3 [Hnew [L3c [L3t [L3o [Hlenf [Inew [Iold Ioth]]]]]]]]]].
  exists f1. split; [exact Er|]. split; [exact L1c|]. intros w3 Q3 Hoff3 Hnow3 F3'.
  set (new := snd (create_file f1 (cname c) 0%N (wnow w))) in *.
  set (f3 := append_ino (fst (create_file f1 (cname c) 0%N (wnow w))) (wino wr) (wpend wr)) in *.
  set (wr' := {| wino := new; wpend := []; wcap := c_cap c |}).
  pose proof (wf_bound _ W _ _ Hc) as Hold.
  assert (Keep : forall n j, lookup (wfs w) n = Some j -> n <> cname c -> n <> kname c e knew -> j <> wino wr ->
                   lookup f3 n = Some j /\ inode f3 j = inode (wfs w) j /\ j <> new).
  { intros n j Lj Hn1 Hn2 Hj. assert (Hj1 : j <> new). { pose proof (wf_bound _ W _ _ Lj). rewrite Hnew. lia. }
    rewrite L3o by assumption. rewrite Ioth by assumption. split; [exact Lj|]. split; [reflexivity | exact Hj1]. }
  split; [|split].
  { constructor.
    - exact Q3.
    - rewrite F3'. exact W3.
    - rewrite F3'. unfold f3. change (dir_names (append_ino ?g _ _)) with (dir_names g).
      apply create_nodup; [exact (rename_nodup _ _ _ _ Hnd Er) | exact L1c].
    - exact Hoff3.
    - rewrite F3'. exact L3c.
    - rewrite F3'. cbn [wr' wino]. rewrite Inew. split; reflexivity.
    - rewrite !app_length, Hlen. reflexivity.
    - intros i Hi. rewrite app_length in Hi. cbn [length] in Hi. rewrite F3'.
      destruct (Nat.eq_dec i (length closed)) as [->|Hne].
      + exists (wino wr). rewrite app_nth2, Hlen, Nat.sub_diag by lia. cbn [nth]. split; [exact L3t|]. split.
        * rewrite Iold. exact Hcp.
        * split; [|cbn [wr' wino]; rewrite Hnew; lia].
          unfold content at 1. rewrite Iold. cbn [with_data fdata]. rewrite app_nth2, Nat.sub_diag by lia. reflexivity.
      + assert (Hi' : i < length closed) by lia. destruct (Hcl i Hi') as [j [Lj [Pj [Cj Hj2]]]].
        assert (Ik : In (nth i keys kd) keys) by (apply nth_In; lia).
        assert (Hn2 : kname c e (nth i keys kd) <> kname c e knew).
        { intros E. apply kname_inj in E; [|apply Yk, Ik | exact Yts]. rewrite E in Ik. apply (keys_count keys Hko) in Ik. lia. }
        destruct (Keep _ j Lj (kname_not_cname c e _ (Yk _ Ik)) Hn2 Hj2) as [L3 [E3 N3]].
        exists j. rewrite (app_nth1 keys _ kd) by lia. unfold content. rewrite E3, app_nth1 by assumption.
        split; [exact L3|]. split; [exact Pj|]. split; [exact Cj | exact N3].
    - intros n d Hin. rewrite F3'. destruct (Hex n d Hin) as [j [Lj [Pj [Cj Hj2]]]].
      destruct (Hfr n (in_map fst _ _ Hin)) as [Hn1 Hn2].
      destruct (Keep n j Lj Hn1 (Hn2 knew Yts) Hj2) as [L3 [E3 N3]].
      exists j. unfold content. rewrite E3.
      split; [exact L3|]. split; [exact Pj|]. split; [exact Cj | exact N3].
    - intros n j Hn. rewrite F3' in Hn.
      destruct (beq_spec n (cname c)) as [->|Hn1]; [left; reflexivity|].
      destruct (beq_spec n (kname c e knew)) as [->|Hn2].
      + right. left. exists (length closed). rewrite app_length. cbn [length]. split; [lia|].
        rewrite app_nth2, Hlen, Nat.sub_diag by lia. reflexivity.
      + rewrite L3o in Hn by assumption. destruct (Hon _ _ Hn) as [E|[[i [Hi E]]|E]]; [contradiction| |right; right; exact E].
        right. left. exists i. rewrite app_length. cbn [length]. split; [lia|]. rewrite (app_nth1 keys _ kd) by lia. exact E.
    - exact Hfr.
    - apply ko_snoc; [exact Hko|]. intros k Ik. specialize (Hrg k Ik). lia.
    - intros k Ik. apply in_app_or in Ik. destruct Ik as [Ik|[<-|[]]].
      + specialize (Hrg k Ik). lia.
      + unfold knew. cbn [fst]. lia.
    - rewrite Hnow3. lia.
    - apply wr_ok_nil. }
  { unfold born. rewrite F3'. cbn [wr' wino]. rewrite Inew. reflexivity. }
  { unfold cur_view. rewrite F3'. cbn [wr' wino wpend]. unfold content. rewrite Inew. reflexivity. }
Qed.

Lemma rotate_tsinv c e lo hi w wr keys closed ts :
  TsInv c e lo w wr keys closed ts -> years_ok e lo hi -> (wnow w <= hi)%Z ->
  exists f1, rename (wfs w) (cname c) (kname c e (ts, count ts keys)) = Some f1 /\ lookup f1 (cname c) = None /\
    forall w3, quiet w3 -> eoff c w3 = e -> wnow w3 = wnow w ->
      wfs w3 = append_ino (fst (create_file f1 (cname c) 0%N (wnow w))) (wino wr) (wpend wr) ->
      TsInvB c e lo w3 {| wino := snd (create_file f1 (cname c) 0%N (wnow w)); wpend := []; wcap := c_cap c |}
             (keys ++ [(ts, count ts keys)]) (closed ++ [cur_view w wr]) (wnow w)
      /\ cur_view w3 {| wino := snd (create_file f1 (cname c) 0%N (wnow w)); wpend := []; wcap := c_cap c |} = [].
Proof.
  intros I Y Hhi.
  destruct (tsinvx_rotate c e lo hi w wr keys closed ts [] (tsinv_x _ _ _ _ _ _ _ _ I) Y Hhi) as [f1 [Er [L1c R]]].
  exists f1. split; [exact Er|]. split; [exact L1c|]. intros w3 Q3 Hoff3 Hnow3 F3.
  destruct (R w3 Q3 Hoff3 Hnow3 F3) as [I3 [B3 V3]].
  split; [split; [exact (tsinvx_base _ _ _ _ _ _ _ _ I3 eq_refl) | exact B3] | exact V3].
Qed.

(* the search for a free infix is answered by the next key: cfi_tsinv where the directory holds the family only *)
Lemma mount_next_tsx c crit e lo hi w wr keys closed ts extra roll force :
  tscfg c crit -> years_ok e lo hi -> TsInvX c e lo w wr keys closed ts extra -> (wnow w <= hi)%Z ->
  collision_free_infix (woff w) (c_spec c) (fixed0 c) (wfs w) (tsx e ts) = Some (Some (infix_of e (ts, count ts keys))) ->
  force || rotation_necessary w roll = true ->
  exists w' wr',
    mount_next c w (Active (Some (mk_rs (NSTs ts (Some cur_infix) std_fmt) roll)) wr (cname c)) force
      = (Ok tt, w', Active (Some (mk_rs (NSTs (wnow w) (Some cur_infix) std_fmt) (reset_roll roll (wnow w)))) wr' (cname c))
    /\ TsInvX c e lo w' wr' (keys ++ [(ts, count ts keys)]) (closed ++ [cur_view w wr]) (wnow w) extra
    /\ born w' wr' = wnow w /\ cur_view w' wr' = [] /\ same_env w w' /\ wcap wr' = c_cap c.
Proof.
  intros [Hrot [Hts [Hlink _]]] Y I Hhi Hcf Hnec.
  pose proof (ux_quiet _ _ _ _ _ _ _ _ _ I) as Q. pose proof (ux_off _ _ _ _ _ _ _ _ _ I) as Hoff.
  unfold mount_next. cbn [mk_rs rs_roll rs_naming rs_cleanup rs_bg]. rewrite Hnec.
  unfold creation_ts_of_current, collision_free. rewrite !tick_quiet by assumption.
  rewrite !(name_of_fixed c w) by assumption. rewrite (fixed_of_fixed0 c w Hts), infix_from_ts_tsx, Hoff, Hcf.
  rewrite ?(name_of_fixed c w) by assumption.
  fold (nm c cur_infix). fold (cname c).
  change (as_name (c_spec c) (fixed0 c) (Some (infix_of e (ts, count ts keys)))) with (kname c e (ts, count ts keys)).
  destruct (tsinvx_rotate c e lo hi w wr keys closed ts extra I Y Hhi) as [f1 [Er [L1c RI]]].
  pose proof (p_rename_quiet w (cname c) (kname c e (ts, count ts keys)) Q) as PR. rewrite Er in PR.
  destruct PR as [w1 [Epr [F1 S1]]]. rewrite Epr.
  (* the creation time of the new current file: it does not exist yet, so the clock is read *)
  assert (Eb : birth_or_now w1 (cname c) = wnow w).
  { unfold birth_or_now. rewrite file_of_missing by (rewrite F1; exact L1c). exact (same_env_now _ _ S1). }
  rewrite Eb.
  assert (L1 : lookup (wfs w1) (name_of c w1 (Some cur_infix)) = None).
  { rewrite (name_of_fixed c w1) by assumption. rewrite F1. exact L1c. }
  rewrite (open_log_file_fresh c w1 (Some cur_infix) (proj1 S1) Hlink L1).
  rewrite (name_of_fixed c w1) by assumption. fold (nm c cur_infix) (cname c).
  (* the old writer is dropped *)
  unfold w_drop. rewrite !w_flush_quiet_eq by exact (proj1 S1). cbn [fst snd wfs set_fs wino wpend].
  unfold cleanup_or_queue. cbn [mk_rs rs_roll rs_naming rs_cleanup rs_bg cleanup_impl].
  rewrite append_ino_nil_id, F1, (same_env_now _ _ S1), !set_fs_set_fs.
  set (w3 := set_fs _ _).
  assert (SE : same_env w w3) by (eapply same_env_trans; [exact S1 | apply same_env_set_fs; exact (proj1 S1)]).
  destruct (RI w3 (proj1 SE) (eq_trans (eoff_same_env c _ _ SE) Hoff) (same_env_now _ _ SE) eq_refl) as [I3 [B3 V3]].
  rewrite reset_size_and_date_eq, (born_birthx _ _ _ _ _ _ _ _ _ I3), B3.
  eexists w3, _. split; [reflexivity|]. split; [exact I3|]. split; [exact B3|]. split; [exact V3|]. split; [exact SE | reflexivity].
Qed.

Lemma mount_next_ts c crit e lo hi w wr keys closed ts roll force :
  tscfg c crit -> tag_ok c -> years_ok e lo hi -> TsInv c e lo w wr keys closed ts ->
  (wnow w <= hi)%Z -> (N.of_nat (length closed) <= usize_max)%N ->
  force || rotation_necessary w roll = true ->
  exists w' wr',
    mount_next c w (Active (Some (mk_rs (NSTs ts (Some cur_infix) std_fmt) roll)) wr (cname c)) force
      = (Ok tt, w', Active (Some (mk_rs (NSTs (wnow w) (Some cur_infix) std_fmt) (reset_roll roll (wnow w)))) wr' (cname c))
    /\ TsInvB c e lo w' wr' (keys ++ [(ts, count ts keys)]) (closed ++ [cur_view w wr]) (wnow w)
    /\ cur_view w' wr' = [] /\ same_env w w'.
Proof.
  intros Hcfg T Y I Hhi Hmax Hnec.
  destruct (mount_next_tsx c crit e lo hi w wr keys closed ts [] roll force Hcfg Y (tsinv_x _ _ _ _ _ _ _ _ I) Hhi
              (cfi_tsinv c e lo hi w wr keys closed ts T Y I Hhi Hmax) Hnec) as [w' [wr' [E [I' [B' [V' [S' C']]]]]]].
  exists w', wr'. split; [exact E|]. split; [exact (conj (tsinvx_base _ _ _ _ _ _ _ _ I' C') B')|]. split; [exact V' | exact S'].
Qed.

Lemma mount_next_rotates_ts c crit e lo hi w wr keys closed ts roll force :
  tscfg c crit -> tag_ok c -> years_ok e lo hi -> TsInv c e lo w wr keys closed ts ->
  (wnow w <= hi)%Z -> (N.of_nat (length closed) <= usize_max)%N ->
  force || rotation_necessary w roll = true ->
  exists w' wr' roll',
    mount_next c w (Active (Some (mk_rs (NSTs ts (Some cur_infix) std_fmt) roll)) wr (cname c)) force
      = (Ok tt, w', Active (Some (mk_rs (NSTs (wnow w) (Some cur_infix) std_fmt) roll')) wr' (cname c))
    /\ TsInv c e lo w' wr' (keys ++ [(ts, count ts keys)]) (closed ++ [cur_view w wr]) (wnow w)
    /\ cur_view w' wr' = [] /\ same_env w w'.
Proof.
  intros Hcfg T Y I Hhi Hmax Hnec.
  destruct (mount_next_ts c crit e lo hi w wr keys closed ts roll force Hcfg T Y I Hhi Hmax Hnec) as [w' [wr' [E [[I' _] VS]]]].
  exists w', wr', (reset_roll roll (wnow w)). split; [exact E|]. split; [exact I' | exact VS].
Qed.

(* ------------------------------------------------------------------ a write on an active writer *)
Lemma w_write_tsinvx c e lo w wr keys closed ts extra b : TsInvX c e lo w wr keys closed ts extra ->
  exists w' wr', w_write w wr b = (true, w', wr') /\ TsInvX c e lo w' wr' keys closed ts extra /\ same_env w w'
    /\ cur_view w' wr' = cur_view w wr ++ b /\ born w' wr' = born w wr /\ wcap wr' = wcap wr.
Proof.
  intros I.
  destruct (w_write_quiet w wr b (ux_quiet _ _ _ _ _ _ _ _ _ I) (ux_wr _ _ _ _ _ _ _ _ _ I))
    as [w2 [wr2 [fl [Ew [S2 [F2 [Ei [Ec [Ep Hok]]]]]]]]].
  destruct (tsinvx_append c e lo w w2 wr wr2 keys closed ts extra fl I F2 S2 Ei Hok) as [I2 C2].
  exists w2, wr2. split; [exact Ew|]. split; [exact I2|]. split; [exact S2|].
  split; [exact (cur_view_append _ _ _ _ _ _ C2 Ep)|]. split; [exact (born_appendx _ _ _ _ _ _ _ _ _ _ _ _ I F2 Ei) | exact Ec].
Qed.

Lemma write_buffer_tsx c crit e lo hi w wr keys closed ts extra roll b :
  tscfg c crit -> years_ok e lo hi -> TsInvX c e lo w wr keys closed ts extra -> (wnow w <= hi)%Z ->
  collision_free_infix (woff w) (c_spec c) (fixed0 c) (wfs w) (tsx e ts) = Some (Some (infix_of e (ts, count ts keys))) ->
  let rot := rotation_necessary w roll in
  exists w' wr',
    write_buffer (st_ts c ts roll wr) w b
      = (Ok tt, w', st_ts c (if rot then wnow w else ts)
                      (increase_size (if rot then reset_roll roll (wnow w) else roll) (N.of_nat (length b))) wr', rot)
    /\ TsInvX c e lo w' wr' (if rot then keys ++ [(ts, count ts keys)] else keys)
              (if rot then closed ++ [cur_view w wr] else closed) (if rot then wnow w else ts) extra
    /\ born w' wr' = (if rot then wnow w else born w wr)
    /\ same_env w w'
    /\ cur_view w' wr' = (if rot then b else cur_view w wr ++ b)
    /\ (wcap wr = c_cap c -> wcap wr' = c_cap c).
Proof.
  intros Hcfg Y I Hhi Hcf rot.
  unfold write_buffer, st_ts. cbn [f_cfg f_inner f_poisoned mk_rs rs_roll]. fold rot.
  destruct rot eqn:Er.
  - destruct (mount_next_tsx c crit e lo hi w wr keys closed ts extra roll false Hcfg Y I Hhi Hcf Er)
      as [w1 [wr1 [E [I1 [B1 [V1 [S1 C1]]]]]]].
    rewrite E.
    destruct (w_write_tsinvx c e lo w1 wr1 _ _ _ extra b I1) as [w2 [wr2 [Ew [I2 [S2 [V2 [B2 C2]]]]]]]. rewrite Ew.
    exists w2, wr2. split; [reflexivity|]. split; [exact I2|]. split; [rewrite B2; exact B1|].
    split; [exact (same_env_trans _ _ _ S1 S2)|]. split; [rewrite V2, V1; reflexivity | congruence].
  - unfold mount_next. cbn [mk_rs rs_roll orb]. fold rot. rewrite Er.
    destruct (w_write_tsinvx c e lo w wr _ _ _ extra b I) as [w2 [wr2 [Ew [I2 [S2 [V2 [B2 C2]]]]]]]. rewrite Ew.
    exists w2, wr2. split; [reflexivity|]. split; [exact I2|]. split; [exact B2|]. split; [exact S2|].
    split; [exact V2 | congruence].
Qed.

Lemma write_buffer_ts c crit e lo hi w wr keys closed ts roll b :
  tscfg c crit -> tag_ok c -> years_ok e lo hi -> TsInv c e lo w wr keys closed ts ->
  (wnow w <= hi)%Z -> (N.of_nat (length closed) <= usize_max)%N ->
  let rot := rotation_necessary w roll in
  exists w' wr',
    write_buffer (st_ts c ts roll wr) w b
      = (Ok tt, w', st_ts c (if rot then wnow w else ts)
                      (increase_size (if rot then reset_roll roll (wnow w) else roll) (N.of_nat (length b))) wr', rot)
    /\ TsInv c e lo w' wr' (if rot then keys ++ [(ts, count ts keys)] else keys)
             (if rot then closed ++ [cur_view w wr] else closed) (if rot then wnow w else ts)
    /\ born w' wr' = (if rot then wnow w else born w wr)
    /\ same_env w w'
    /\ cur_view w' wr' = (if rot then b else cur_view w wr ++ b).
Proof.
  intros Hcfg T Y I Hhi Hmax rot.
  destruct (write_buffer_tsx c crit e lo hi w wr keys closed ts [] roll b Hcfg Y (tsinv_x _ _ _ _ _ _ _ _ I) Hhi
              (cfi_tsinv c e lo hi w wr keys closed ts T Y I Hhi Hmax)) as [w' [wr' [E [I' [B' [S' [V' C']]]]]]].
  exists w', wr'. split; [exact E|]. split; [|split; [exact B' | split; [exact S' | exact V']]].
  exact (tsinvx_base _ _ _ _ _ _ _ _ I' (C' (ti_cap _ _ _ _ _ _ _ _ I))).
Qed.

Lemma write_active_ts c crit e lo hi w wr keys closed ts roll b :
  tscfg c crit -> tag_ok c -> years_ok e lo hi -> TsInv c e lo w wr keys closed ts ->
  (wnow w <= hi)%Z -> (N.of_nat (length closed) <= usize_max)%N ->
  let rot := rotation_necessary w roll in
  exists w' wr' roll' keys' closed' ts',
    write_buffer (st_ts c ts roll wr) w b = (Ok tt, w', st_ts c ts' roll' wr', rot)
    /\ TsInv c e lo w' wr' keys' closed' ts' /\ same_env w w'
    /\ (closed', cur_view w' wr') = (if rot then (closed ++ [cur_view w wr], b) else (closed, cur_view w wr ++ b)).
Proof.
  intros Hcfg T Y I Hhi Hmax rot.
  destruct (write_buffer_ts c crit e lo hi w wr keys closed ts roll b Hcfg T Y I Hhi Hmax) as [w' [wr' [E [I' [_ [S' V']]]]]].
  fold rot in E, I', V'.
  eexists w', wr', _, _, _, _. split; [exact E|]. split; [exact I'|]. split; [exact S'|].
  rewrite V'. destruct rot; reflexivity.
Qed.

(* ------------------------------------------------------------------ flush *)
Lemma tsinvx_flushed c e lo w wr keys closed ts extra : TsInvX c e lo w wr keys closed ts extra ->
  TsInvX c e lo (flushed w wr) (emptied wr) keys closed ts extra /\ cur_view (flushed w wr) (emptied wr) = cur_view w wr.
Proof.
  intros I. pose proof (ux_quiet _ _ _ _ _ _ _ _ _ I) as Q.
  destruct (tsinvx_append c e lo w (flushed w wr) wr (emptied wr) keys closed ts extra (wpend wr) I (flushed_fs w wr)
              (flushed_env w wr Q) eq_refl (wr_ok_nil _ _)) as [I1 C1].
  split; [exact I1|]. unfold cur_view. rewrite C1. cbn [emptied wpend]. apply app_nil_r.
Qed.

Lemma flush_active_tsx c e lo w wr keys closed ts extra roll :
  TsInvX c e lo w wr keys closed ts extra ->
  exists w' wr', flush_state (st_ts c ts roll wr) w = (true, w', st_ts c ts roll wr')
    /\ TsInvX c e lo w' wr' keys closed ts extra /\ cur_view w' wr' = cur_view w wr /\ wpend wr' = [] /\ same_env w w'
    /\ wcap wr' = wcap wr.
Proof.
  intros I. pose proof (ux_quiet _ _ _ _ _ _ _ _ _ I) as Q. destruct (tsinvx_flushed _ _ _ _ _ _ _ _ _ I) as [I1 V1].
  exists (flushed w wr), (emptied wr). split; [exact (flush_state_quiet c false w _ wr _ Q)|].
  split; [exact I1|]. split; [exact V1|]. split; [reflexivity|]. split; [exact (flushed_env w wr Q) | reflexivity].
Qed.

Lemma flush_active_ts c e lo w wr keys closed ts roll :
  TsInv c e lo w wr keys closed ts ->
  exists w' wr', flush_state (st_ts c ts roll wr) w = (true, w', st_ts c ts roll wr')
    /\ TsInv c e lo w' wr' keys closed ts /\ cur_view w' wr' = cur_view w wr /\ wpend wr' = [] /\ same_env w w'.
Proof.
  intros I. destruct (flush_active_tsx c e lo w wr keys closed ts [] roll (tsinv_x _ _ _ _ _ _ _ _ I)) as [w' [wr' [E [I' [V' [P' [S' C']]]]]]].
  exists w', wr'. split; [exact E|]. split; [|split; [exact V' | split; [exact P' | exact S']]].
  apply (tsinvx_base _ _ _ _ _ _ _ _ I'). rewrite C'. exact (ti_cap _ _ _ _ _ _ _ _ I).
Qed.

Lemma tsinvx_tick c e lo w wr keys closed ts extra dt : TsInvX c e lo w wr keys closed ts extra -> (0 <= dt)%Z ->
  TsInvX c e lo (set_now w (wnow w + dt)%Z) wr keys closed ts extra.
Proof.
  intros [Q W Hnd Hoff Hc Hcp Hlen Hcl Hex Hon Hfr Hko Hrg Htsr Hwr] Hdt. constructor; try assumption. cbn [set_now wnow]. lia.
Qed.

(* ------------------------------------------------------------------ the first write initialises the writer: empty directory *)
Lemma collision_free_infix_empty off sp fixed f infix : names f = [] ->
  collision_free_infix off sp fixed f infix = Some (Some infix).
Proof.
  intros H. unfold collision_free_infix. rewrite related_files_empty by assumption.
  cbn [filter_files filter_opt app filter]. rewrite !lookup_empty by assumption. reflexivity.
Qed.

Lemma one_file_fs a fl : let f := {| names := [(a, 0)]; inodes := [fl] |} in
  fs_wf f /\ NoDup (dir_names f) /\ lookup f a = Some 0 /\ (forall n j, lookup f n = Some j -> n = a).
Proof.
  cbn zeta. split; [split|split; [|split]].
  - intros n j. unfold lookup; cbn. destruct (beq a n); [|discriminate]. intros E; injection E as <-. lia.
  - intros n b j. unfold lookup; cbn. destruct (beq_spec a n), (beq_spec a b); try discriminate. congruence.
  - unfold dir_names. cbn [names List.map fst]. constructor; [intros [] | constructor].
  - unfold lookup; cbn. rewrite beq_refl. reflexivity.
  - intros n j. unfold lookup; cbn. destruct (beq_spec a n); [auto | discriminate].
Qed.

Lemma initialize_ts_empty c crit e lo w :
  tscfg c crit -> quiet w -> names (wfs w) = [] -> inodes (wfs w) = [] -> eoff c w = e -> (lo <= wnow w)%Z ->
  exists w' wr,
    initialize c w = (Ok (Active (Some (mk_rs (NSTs (wnow w) (Some cur_infix) std_fmt) (roll_of crit 0 (wnow w)))) wr (cname c)), w')
    /\ TsInvB c e lo w' wr [] [] (wnow w) /\ cur_view w' wr = [] /\ same_env w w'.
Proof.
  intros [Hrot [Hts [Hlink _]]] Q Hn Hi Hoff Hlo.
  assert (L0 : forall n, lookup (wfs w) n = None) by (intros n; apply lookup_empty; exact Hn).
  unfold initialize. rewrite Hrot. unfold init_naming.
  (* the creation time of the current file: it does not exist, the clock is read *)
  assert (E0 : creation_ts_of_current c w cur_infix (negb (c_append c)) None std_fmt = (Ok (wnow w), w)).
  { unfold creation_ts_of_current. rewrite (name_of_fixed c w) by assumption. fold (nm c cur_infix) (cname c).
    assert (Eb : birth_or_now w (cname c) = wnow w).
    { unfold birth_or_now. rewrite file_of_missing by apply L0. reflexivity. }
    rewrite Eb. destruct (negb (c_append c)); [|reflexivity].
    unfold collision_free. rewrite !tick_quiet by assumption. rewrite collision_free_infix_empty by assumption.
    pose proof (p_rename_quiet w (cname c) (name_of c w (Some (infix_from_ts c w std_fmt (wnow w)))) Q) as PR.
    rewrite rename_none in PR by apply L0. rewrite PR, Eb. reflexivity. }
  rewrite E0. cbn [bind].
  rewrite (open_log_file_fresh c w (Some cur_infix) Q Hlink (L0 _)). cbn [bind].
  rewrite (name_of_fixed c w) by assumption. fold (nm c cur_infix) (cname c).
  unfold create_file. rewrite Hn, Hi. cbn [fst length app].
  set (f2 := {| names := [(cname c, 0)]; inodes := [_] |}).
  destruct (one_file_fs (cname c) (fresh_file (wnow w))) as [W2 [Nd2 [Lc Only]]]. fold f2 in W2, Nd2, Lc, Only.
  assert (Fo : file_of (wfs (set_fs w f2)) (cname c) = Some (fresh_file (wnow w))) by (apply file_of_lookup in Lc; exact Lc).
  rewrite (roll_new_quiet (set_fs w f2) crit (c_append c) (cname c) _ Q Fo). cbn [bind fresh_file fdata fborn length N.of_nat].
  assert (Es : (if c_append c then 0%N else 0%N) = 0%N) by (destruct (c_append c); reflexivity). rewrite Es.
  pose proof (same_env_set_fs w f2 Q) as S2.
  eexists (set_fs w f2), _. split; [reflexivity|].
  split; [split|split; [reflexivity | exact S2]].
  - constructor; cbn [wfs set_fs wino length].
    + exact Q.
    + exact W2.
    + exact Nd2.
    + rewrite <- Hoff. exact (eoff_same_env c _ _ S2).
    + exact Lc.
    + split; reflexivity.
    + reflexivity.
    + intros i Hi'. lia.
    + intros n j L. left. exact (Only n j L).
    + constructor.
    + intros k [].
    + rewrite (same_env_now _ _ S2). lia.
    + apply wr_ok_nil.
    + reflexivity.
  - reflexivity.
Qed.

Lemma initialize_empty_ts c crit e lo w :
  tscfg c crit -> quiet w -> names (wfs w) = [] -> inodes (wfs w) = [] -> eoff c w = e -> (lo <= wnow w)%Z ->
  exists w' wr roll,
    initialize c w = (Ok (Active (Some (mk_rs (NSTs (wnow w) (Some cur_infix) std_fmt) roll)) wr (cname c)), w')
    /\ TsInv c e lo w' wr [] [] (wnow w) /\ cur_view w' wr = [] /\ same_env w w'.
Proof.
  intros Hcfg Q Hn Hi Hoff Hlo.
  destruct (initialize_ts_empty c crit e lo w Hcfg Q Hn Hi Hoff Hlo) as [w' [wr [E [[I _] VS]]]].
  exists w', wr, (roll_of crit 0 (wnow w)). split; [exact E|]. split; [exact I | exact VS].
Qed.
Print Assumptions mount_next_rotates_ts.
