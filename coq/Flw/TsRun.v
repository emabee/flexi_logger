(* Timestamps naming: every history of writes, flushes, triggers and (non-negative) clock ticks refines the abstract
   reader's view (closed files, current content).  The abstract side (aview, a_step, a_run, flat, written) is the one of
   Numbers naming (NumRun.v); the concrete side additionally carries the keys (second, position) of the closed files.
   A writer that has written is given by named components (sstate), on which one operation acts as the function s_next. *)
Require Import FL.Base.Bytes FL.Base.BytesFacts FL.Base.PathName FL.Fs.Fs FL.Fs.FsFacts FL.Time.Civil FL.Time.TsFormat
  FL.Names.FileSpec FL.Names.NamesFacts FL.Flw.Model FL.Flw.ModelFacts FL.Flw.NumFs FL.Flw.NumInv FL.Flw.Run FL.Flw.RunFacts
  FL.Flw.QuietFacts FL.Flw.NumRun FL.Flw.TsCal FL.Flw.TsTime FL.Flw.TsNames FL.Flw.TsInv.
Open Scope nat_scope.

(* the clock does not go backwards *)
Definition tick_ok (o : op) : Prop := match o with OTick dt => (0 <= dt)%Z | _ => True end.
Definition dt_of (o : op) : Z := match o with OTick dt => dt | _ => 0%Z end.
Fixpoint elapsed (ops : list op) : Z := match ops with [] => 0%Z | o :: r => (dt_of o + elapsed r)%Z end.

Lemma elapsed_nonneg ops : Forall tick_ok ops -> (0 <= elapsed ops)%Z.
Proof.
  induction 1 as [|o r Ho _ IH]; cbn [elapsed]; [lia|]. destruct o; cbn [dt_of tick_ok] in *; lia.
Qed.

(* n counts the operations done, which bounds the number of files *)
Lemma run_invariant (R : nat -> sys -> Prop) (P : obs -> Prop) (hi : Z) :
  (forall n x o, R n x -> basic_op o -> tick_ok o -> (wnow (s_w x) <= hi)%Z -> (N.of_nat (S n) <= usize_max)%N ->
     R (S n) (fst (step x o)) /\ wnow (s_w (fst (step x o))) = (wnow (s_w x) + dt_of o)%Z /\ P (snd (step x o))) ->
  forall ops x n, R n x -> Forall basic_op ops -> Forall tick_ok ops ->
  (wnow (s_w x) + elapsed ops <= hi)%Z -> (N.of_nat (n + length ops) <= usize_max)%N ->
  R (n + length ops) (fst (run x ops)) /\ wnow (s_w (fst (run x ops))) = (wnow (s_w x) + elapsed ops)%Z
  /\ Forall P (snd (run x ops)).
Proof.
  intros Step. induction ops as [|o r IH]; intros x n R0 Hb Htk Hhi Hmax.
  - cbn [run fst snd length elapsed]. rewrite Nat.add_0_r. split; [exact R0|]. split; [lia | constructor].
  - cbn [run]. inversion Hb as [|o' r' Ho Hr]; subst. inversion Htk as [|o' r' Hto Htr]; subst.
    cbn [elapsed length] in *. pose proof (elapsed_nonneg r Htr) as Er.
    assert (Hdt : (0 <= dt_of o)%Z) by (destruct o; cbn [dt_of tick_ok] in *; lia).
    destruct (Step n x o R0 Ho Hto ltac:(lia) ltac:(lia)) as [R1 [W1 P1]]. destruct (step x o) as [x1 ob]. cbn [fst snd] in *.
    destruct (IH x1 (S n) R1 Hr Htr ltac:(lia) ltac:(lia)) as [R2 [W2 P2]]. destruct (run x1 r) as [x2 obs]. cbn [fst snd] in *.
    replace (n + S (length r)) with (S n + length r) by lia. split; [exact R2|]. split; [lia | constructor; assumption].
Qed.

(* n bounds the number of closed files (it grows by one with every operation) *)
Definition RelT (c : config) (e lo : Z) (n : nat) (x : sys) (a : aview) : Prop :=
  s_tl x = [] /\ wacts (s_w x) = 0 /\
  match a with
  | None => s_flw x = Some (new_flw c) /\ quiet (s_w x) /\ names (wfs (s_w x)) = [] /\ inodes (wfs (s_w x)) = []
            /\ eoff c (s_w x) = e /\ (lo <= wnow (s_w x))%Z
  | Some (closed, cur) =>
    exists keys wr roll ts, s_flw x = Some (st_ts c ts roll wr) /\ TsInv c e lo (s_w x) wr keys closed ts
      /\ cur_view (s_w x) wr = cur /\ length closed <= n
  end.

(* the clock may advance under the invariant *)
Lemma tsinv_tick c e lo w wr keys closed ts dt : TsInv c e lo w wr keys closed ts -> (0 <= dt)%Z ->
  TsInv c e lo (set_now w (wnow w + dt)%Z) wr keys closed ts.
Proof.
  intros [Q W Hnd Hoff Hc Hcp Hlen Hcl Hon Hko Hrg Htsr Hwr Hcap] Hdt. constructor; try assumption. cbn [set_now wnow]. lia.
Qed.

Lemma tsinv_flushed c e lo w wr keys closed ts : TsInv c e lo w wr keys closed ts ->
  TsInv c e lo (flushed w wr) (emptied wr) keys closed ts /\ cur_view (flushed w wr) (emptied wr) = cur_view w wr.
Proof.
  intros I.
  destruct (tsinv_append c e lo w (flushed w wr) wr (emptied wr) keys closed ts (wpend wr) I eq_refl
              (flushed_env w wr (ti_quiet _ _ _ _ _ _ _ _ I)) eq_refl eq_refl (wr_ok_nil _ _)) as [I1 C1].
  split; [exact I1|]. unfold cur_view. rewrite C1. cbn [emptied wpend]. apply app_nil_r.
Qed.

Definition d_obs (w : world) (roll : roll_state) (o : op) : obs :=
  match o with
  | OWrite _ | OPlain _ => ObsRes 0 (rotation_necessary w roll)
  | OSnap => snapshot w
  | _ => ObsRes 0 false
  end.

Lemma same_env_step w w' : same_env w w' -> wnow w' = (wnow w + 0)%Z /\ woff w' = woff w /\ wacts w' = wacts w.
Proof. intros [_ [-> [-> [_ [_ ->]]]]]. repeat split. lia. Qed.

(* the keys of the closed files, their contents, the content and the birth second of rCURRENT and the roll state; what one
   basic operation makes of them is a function of them and of the clock *)
Definition sstate : Type := list key * list bytes * bytes * Z * roll_state.

(* P relates the second in which rCURRENT was created to the second the naming state holds: equality for a directory that
   a later writer may find (TsInvB), nothing for a single run.  Every rotation makes the two equal, nothing else touches
   either, so any reflexive P is kept. *)
Definition ActW (P : Z -> Z -> Prop) (c : config) (e lo : Z) (s : flw) (w : world) (d : sstate) : Prop :=
  let '(keys, closed, cur, ts, roll) := d in
  exists wr, s = st_ts c ts roll wr /\ (TsInv c e lo w wr keys closed ts /\ P (born w wr) ts) /\ cur_view w wr = cur.

Definition ActS : config -> Z -> Z -> flw -> world -> sstate -> Prop := ActW eq.

Definition s_next (w : world) (d : sstate) (o : op) : sstate :=
  let '(keys, closed, cur, ts, roll) := d in
  let rotated := (keys ++ [(ts, count ts keys)], closed ++ [cur]) in
  match o with
  | OWrite b | OPlain b =>
    if rotation_necessary w roll
    then (rotated, b, wnow w, increase_size (reset_roll roll (wnow w)) (N.of_nat (length b)))
    else (keys, closed, cur ++ b, ts, increase_size roll (N.of_nat (length b)))
  | OTrigger => (rotated, [], wnow w, reset_roll roll (wnow w))
  | _ => d
  end.

Lemma act_write_w (P : Z -> Z -> Prop) (Pr : forall t, P t t) c crit e lo hi s w (keys : list key) (closed : list bytes) (cur : bytes)
  (ts : Z) roll b :
  tscfg c crit -> tag_ok c -> years_ok e lo hi -> ActW P c e lo s w (keys, closed, cur, ts, roll) ->
  (wnow w <= hi)%Z -> (N.of_nat (length closed) <= usize_max)%N ->
  exists w' s', write_buffer s w b = (Ok tt, w', s', rotation_necessary w roll) /\ same_env w w'
    /\ ActW P c e lo s' w' (s_next w (keys, closed, cur, ts, roll) (OWrite b)).
Proof.
  intros Hcfg T Y [wr [-> [[I B] V]]] Hhi Hmax.
  destruct (write_buffer_ts c crit e lo hi w wr keys closed ts roll b Hcfg T Y I Hhi Hmax) as [w' [wr' [E [I' [B' [S' V']]]]]].
  eexists w', _. split; [exact E|]. split; [exact S'|]. cbn [s_next]. rewrite V in I', V'.
  destruct (rotation_necessary w roll); exists wr'; (split; [reflexivity|]; split; [split; [exact I' | rewrite B'] | exact V']).
  - apply Pr.
  - exact B.
Qed.

Lemma act_step_w (P : Z -> Z -> Prop) (Pr : forall t, P t t) c crit e lo hi x s (keys : list key) (closed : list bytes) (cur : bytes)
  (ts : Z) roll o :
  tscfg c crit -> tag_ok c -> years_ok e lo hi -> s_flw x = Some s ->
  ActW P c e lo s (s_w x) (keys, closed, cur, ts, roll) ->
  s_tl x = [] -> basic_op o -> tick_ok o -> (wnow (s_w x) <= hi)%Z -> (N.of_nat (length closed) <= usize_max)%N ->
  exists x' s', step x o = (x', d_obs (s_w x) roll o) /\ s_flw x' = Some s'
    /\ ActW P c e lo s' (s_w x') (s_next (s_w x) (keys, closed, cur, ts, roll) o) /\ s_tl x' = []
    /\ wnow (s_w x') = (wnow (s_w x) + dt_of o)%Z /\ woff (s_w x') = woff (s_w x) /\ wacts (s_w x') = wacts (s_w x).
Proof.
  intros Hcfg T Y Es A Ht Hb Htk Hhi Hmax.
  assert (Hs : f_cfg s = c /\ f_poisoned s = false) by (destruct A as [wr [-> _]]; split; reflexivity).
  destruct Hs as [Ec Hp].
  rewrite (step_sync_cfg x o s Es) by (rewrite Ec; apply Hcfg).
  destruct o; try contradiction; cbn [sync_step dt_of d_obs].
  - (* OWrite *)
    destruct (act_write_w P Pr c crit e lo hi s (s_w x) keys closed cur ts roll b Hcfg T Y A Hhi Hmax) as [w' [s' [E [S' A']]]].
    rewrite Es, Hp, Ht. cbn [app]. rewrite E. eexists _, s'. split; [reflexivity|]. cbn [s_flw s_w s_tl].
    split; [reflexivity|]. split; [exact A'|]. split; [reflexivity | exact (same_env_step _ _ S')].
  - (* OPlain *)
    destruct (act_write_w P Pr c crit e lo hi s (s_w x) keys closed cur ts roll b Hcfg T Y A Hhi Hmax) as [w' [s' [E [S' A']]]].
    rewrite Es, Hp, E. eexists _, s'. split; [reflexivity|]. cbn [s_flw s_w s_tl].
    split; [reflexivity|]. split; [exact A'|]. split; [exact Ht | exact (same_env_step _ _ S')].
  - (* OFlush *)
    rewrite Es, Hp. destruct A as [wr [-> [[I B] V]]]. pose proof (ti_quiet _ _ _ _ _ _ _ _ I) as Q.
    destruct (tsinv_flushed c e lo (s_w x) wr keys closed ts I) as [I1 V1].
    unfold st_ts. rewrite (flush_state_quiet c false (s_w x) _ wr _ Q). eexists _, _. split; [reflexivity|]. cbn [s_flw s_w s_tl s_next].
    split; [reflexivity|]. split; [|split; [exact Ht | exact (same_env_step _ _ (flushed_env _ wr Q))]].
    exists (emptied wr). split; [reflexivity|]. split; [split; [exact I1|] | congruence].
    rewrite (born_append c e lo (s_w x) (flushed (s_w x) wr) wr (emptied wr) keys closed ts (wpend wr) I eq_refl eq_refl). exact B.
  - (* OTrigger *)
    rewrite Es, Hp. destruct A as [wr [-> [[I B] V]]]. cbn [st_ts f_cfg f_inner].
    destruct (mount_next_ts c crit e lo hi (s_w x) wr keys closed ts roll true Hcfg T Y I Hhi Hmax eq_refl)
      as [w' [wr' [E [[I' B'] [V' S']]]]].
    rewrite E. eexists _, _. split; [reflexivity|]. cbn [s_flw s_w s_tl s_next code_of with_inner f_cfg f_poisoned].
    split; [reflexivity|]. split; [|split; [exact Ht | exact (same_env_step _ _ S')]].
    rewrite V in I'. exists wr'. split; [reflexivity|]. split; [split; [exact I' | rewrite B'; apply Pr] | exact V'].
  - (* OTick *)
    eexists _, s. split; [reflexivity|]. cbn [s_flw s_w s_tl s_next set_now woff wnow wacts].
    split; [exact Es|]. split; [|split; [exact Ht|]; split; [reflexivity|]; split; reflexivity].
    destruct A as [wr [-> [[I B] V]]]. exists wr. split; [reflexivity|]. split; [split; [apply tsinv_tick; assumption | exact B] | exact V].
  - (* OSnap *)
    exists x, s. split; [reflexivity|]. split; [exact Es|]. split; [exact A|]. split; [exact Ht|].
    split; [lia|]. split; reflexivity.
Qed.

Definition act_write_ts := act_write_w eq (@eq_refl Z).
Definition act_step_ts := act_step_w eq (@eq_refl Z).

Lemma s_next_view w (keys : list key) (closed : list bytes) (cur : bytes) (ts : Z) roll o : basic_op o ->
  let '(_, closed', cur', _, _) := s_next w (keys, closed, cur, ts, roll) o in
  a_step (Some (closed, cur)) o (rot_of (d_obs w roll o)) = Some (closed', cur') /\ length closed' <= S (length closed).
Proof.
  intros Hb.
  assert (Wr : forall b, let '(_, closed', cur', _, _) := s_next w (keys, closed, cur, ts, roll) (OWrite b) in
            Some (if rotation_necessary w roll then (closed ++ [cur], b) else (closed, cur ++ b)) = Some (closed', cur')
            /\ length closed' <= S (length closed)).
  { intros b. cbn [s_next]. destruct (rotation_necessary w roll); (split; [reflexivity|]); [rewrite app_length; cbn [length]|]; lia. }
  destruct o; try contradiction; try exact (Wr b); cbn [s_next a_step]; (split; [reflexivity|]); [|rewrite app_length; cbn [length]| |]; lia.
Qed.

(* RelT keeps no record of the birth second *)
Definition any_birth (_ _ : Z) : Prop := True.

Lemma relT_act c e lo w wr keys closed ts roll : TsInv c e lo w wr keys closed ts ->
  ActW any_birth c e lo (st_ts c ts roll wr) w (keys, closed, cur_view w wr, ts, roll).
Proof. intros I. exists wr. split; [reflexivity|]. split; [split; [exact I | exact Logic.I] | reflexivity]. Qed.

(* what a write does, from either kind of state *)
Lemma write_rel_ts c crit e lo hi n x a b :
  tscfg c crit -> tag_ok c -> years_ok e lo hi -> RelT c e lo n x a ->
  (wnow (s_w x) <= hi)%Z -> (N.of_nat n <= usize_max)%N ->
  exists s w' s' rot, s_flw x = Some s /\ f_poisoned s = false /\
    write_buffer s (s_w x) b = (Ok tt, w', s', rot)
    /\ RelT c e lo (S n) {| s_flw := Some s'; s_w := w'; s_tl := []; s_dead := s_dead x |} (a_step a (OWrite b) rot)
    /\ wnow w' = wnow (s_w x).
Proof.
  intros Hcfg T Y [Ht [Ha R]] Hhi Hmax.
  assert (Fin : forall w1 wr keys closed ts roll, TsInv c e lo w1 wr keys closed ts -> same_env (s_w x) w1 -> length closed <= n ->
            exists w' s', write_buffer (st_ts c ts roll wr) w1 b = (Ok tt, w', s', rotation_necessary w1 roll)
              /\ RelT c e lo (S n) {| s_flw := Some s'; s_w := w'; s_tl := []; s_dead := s_dead x |}
                   (a_step (Some (closed, cur_view w1 wr)) (OWrite b) (rotation_necessary w1 roll))
              /\ wnow w' = wnow (s_w x)).
  { intros w1 wr keys closed ts roll I S1 Hn.
    destruct (act_write_w any_birth (fun _ => Logic.I) c crit e lo hi _ w1 keys closed _ ts roll b Hcfg T Y
                (relT_act c e lo w1 wr keys closed ts roll I) ltac:(rewrite (same_env_now _ _ S1); exact Hhi) ltac:(lia))
      as [w' [s' [E [S' A']]]].
    pose proof (s_next_view w1 keys closed (cur_view w1 wr) ts roll (OWrite b) Logic.I) as D.
    destruct (s_next w1 (keys, closed, cur_view w1 wr, ts, roll) (OWrite b)) as [[[[keys' closed'] cur'] ts'] roll'].
    destruct D as [Ea Hl]. destruct A' as [wr' [-> [[I' _] V']]]. cbn [d_obs rot_of] in Ea. rewrite Ea.
    pose proof (same_env_trans _ _ _ S1 S') as S2.
    eexists w', _. split; [exact E|]. split; [|exact (same_env_now _ _ S2)].
    split; [reflexivity|]. split; [exact (same_env_acts _ _ S2 Ha)|]. exists keys', wr', roll', ts'. cbn [s_flw s_w].
    split; [reflexivity|]. split; [exact I'|]. split; [exact V' | lia]. }
  destruct a as [[closed cur]|].
  - destruct R as [keys [wr [roll [ts [Es [I [V Hn]]]]]]].
    destruct (Fin (s_w x) wr keys closed ts roll I (same_env_refl _ (ti_quiet _ _ _ _ _ _ _ _ I)) Hn) as [w' [s' [E R']]]. rewrite V in R'.
    exists (st_ts c ts roll wr), w', s', (rotation_necessary (s_w x) roll). split; [exact Es|]. split; [reflexivity|]. split; [exact E | exact R'].
  - destruct R as [Es [Q [Hn [Hi [Hoff Hlo]]]]].
    destruct (initialize_empty_ts c crit e lo (s_w x) Hcfg Q Hn Hi Hoff Hlo) as [w1 [wr [roll [Ei [I [V S1]]]]]].
    destruct (Fin w1 wr [] [] (wnow (s_w x)) roll I S1 ltac:(cbn [length]; lia)) as [w' [s' [E R']]]. rewrite V in R'.
    exists (new_flw c), w', s', (rotation_necessary w1 roll). split; [exact Es|]. split; [reflexivity|].
    split; [rewrite (write_buffer_init c (s_w x) b _ _ _ w1 Ei); exact E | exact R'].
Qed.

Lemma step_sync_rel_ts c crit e lo n x a o : tscfg c crit -> RelT c e lo n x a -> step x o = sync_step x o.
Proof.
  intros [_ [Hts [_ Ha]]] [_ [_ R]].
  destruct a as [[closed cur]|]; [destruct R as [keys [wr [roll [ts [Es _]]]]] | destruct R as [Es _]];
    exact (step_sync_cfg x o _ Es Hts Ha).
Qed.

Lemma RelT_mono c e lo n x a : RelT c e lo n x a -> RelT c e lo (S n) x a.
Proof.
  intros [Ht [Ha R]]. split; [exact Ht|]. split; [exact Ha|]. destruct a as [[closed cur]|]; [|exact R].
  destruct R as [keys [wr [roll [ts [Es [I [V Hn]]]]]]]. exists keys, wr, roll, ts. split; [exact Es|]. split; [exact I|]. split; [exact V | lia].
Qed.

(* one basic operation *)
Lemma step_rel_ts c crit e lo hi n x a o :
  tscfg c crit -> tag_ok c -> years_ok e lo hi -> RelT c e lo n x a -> basic_op o -> tick_ok o ->
  (wnow (s_w x) <= hi)%Z -> (N.of_nat n <= usize_max)%N ->
  let '(x', ob) := step x o in
  RelT c e lo (S n) x' (a_step a o (rot_of ob)) /\ wnow (s_w x') = (wnow (s_w x) + dt_of o)%Z.
Proof.
  intros Hcfg T Y R Hb Htk Hhi Hmax. destruct a as [[closed cur]|].
  - destruct R as [Ht [Ha [keys [wr [roll [ts [Es [I [V Hn]]]]]]]]]. rewrite <- V.
    destruct (act_step_w any_birth (fun _ => Logic.I) c crit e lo hi x _ keys closed _ ts roll o Hcfg T Y Es
                (relT_act c e lo (s_w x) wr keys closed ts roll I) Ht Hb Htk Hhi ltac:(lia))
      as [x' [s' [E [Es' [A' [Ht' [N' [_ Ac']]]]]]]]. rewrite E.
    pose proof (s_next_view (s_w x) keys closed (cur_view (s_w x) wr) ts roll o Hb) as D.
    destruct (s_next (s_w x) (keys, closed, cur_view (s_w x) wr, ts, roll) o) as [[[[keys' closed'] cur'] ts'] roll'].
    destruct D as [Ea Hl]. destruct A' as [wr' [-> [[I' _] V']]]. rewrite Ea.
    split; [|exact N']. split; [exact Ht'|]. split; [rewrite Ac'; exact Ha|]. exists keys', wr', roll', ts'.
    split; [exact Es'|]. split; [exact I'|]. split; [exact V' | lia].
  - rewrite (step_sync_rel_ts c crit e lo n x None o Hcfg R). pose proof R as [Ht [Ha [Es R0]]].
    destruct o; try contradiction; cbn [sync_step dt_of].
    + (* OWrite *)
      destruct (write_rel_ts c crit e lo hi n x None (s_tl x ++ b) Hcfg T Y R Hhi Hmax) as [s [w' [s' [rot [Es' [Hp [E [R' Hw]]]]]]]].
      rewrite Es', Hp, E. rewrite Ht in R'. cbn [rot_of s_w]. split; [exact R' | lia].
    + (* OPlain *)
      destruct (write_rel_ts c crit e lo hi n x None b Hcfg T Y R Hhi Hmax) as [s [w' [s' [rot [Es' [Hp [E [R' Hw]]]]]]]].
      rewrite Es', Hp, E. cbn [rot_of code_of s_w]. rewrite Ht. split; [exact R' | lia].
    + (* OFlush *)
      rewrite Es. cbn [new_flw f_poisoned flush_state f_inner rot_of a_step s_w].
      split; [|lia]. split; [exact Ht|]. split; [exact Ha|]. split; [reflexivity | exact R0].
    + (* OTrigger *)
      rewrite Es. cbn [new_flw f_poisoned f_cfg f_inner mount_next with_inner rot_of a_step code_of s_w].
      split; [|lia]. split; [exact Ht|]. split; [exact Ha|]. split; [reflexivity | exact R0].
    + (* OTick *)
      cbn [rot_of a_step s_w set_now wnow tick_ok] in *. split; [|reflexivity]. split; [exact Ht|]. split; [exact Ha|].
      cbn [s_flw s_w]. destruct R0 as [Q [Hn [Hi [Hoff Hlo]]]]. repeat split; try assumption; try apply Q. cbn [set_now wnow]. lia.
    + (* OSnap *)
      cbn [rot_of a_step]. split; [apply RelT_mono; exact R | lia].
Qed.

Lemma run_rel_ts c crit e lo hi : tscfg c crit -> tag_ok c -> years_ok e lo hi ->
  forall ops x a n, RelT c e lo n x a -> Forall basic_op ops -> Forall tick_ok ops ->
  (wnow (s_w x) + elapsed ops <= hi)%Z -> (N.of_nat (n + length ops) <= usize_max)%N ->
  RelT c e lo (n + length ops) (fst (run x ops)) (a_run a ops (snd (run x ops)))
  /\ wnow (s_w (fst (run x ops))) = (wnow (s_w x) + elapsed ops)%Z.
Proof.
  intros Hcfg T Y. induction ops as [|o r IH]; intros x a n R Hb Htk Hhi Hmax.
  - cbn [run fst snd a_run length elapsed]. rewrite Nat.add_0_r. split; [exact R | lia].
  - cbn [run]. inversion Hb as [|o' r' Ho Hr]; subst. inversion Htk as [|o' r' Hto Htr]; subst.
    cbn [elapsed length] in *. pose proof (elapsed_nonneg r Htr) as Er.
    assert (Hdt : (0 <= dt_of o)%Z) by (destruct o; cbn [dt_of tick_ok] in *; lia).
    pose proof (step_rel_ts c crit e lo hi n x a o Hcfg T Y R Ho Hto ltac:(lia) ltac:(lia)) as S. destruct (step x o) as [x1 ob].
    destruct S as [R1 W1]. specialize (IH x1 _ (S n) R1 Hr Htr ltac:(lia) ltac:(lia)). destruct (run x1 r) as [x2 obs].
    cbn [fst snd a_run] in *. replace (n + S (length r)) with (S n + length r) by lia. destruct IH as [IH1 IH2]. split; [exact IH1 | lia].
Qed.

(* ------------------------------------------------------------------ stop: what the reader finds *)
(* the directory consists exactly of the closed files - plain, named by their keys, with the given contents - and the
   current file *)
Definition ts_view (c : config) (e : Z) (f : fs) (keys : list key) (closed : list bytes) (cur : bytes) : Prop :=
  length keys = length closed
  /\ (forall i, i < length closed ->
        exists j, lookup f (kname c e (nth i keys kd)) = Some j /\ plain (inode f j) /\ content f j = nth i closed [])
  /\ (exists j, lookup f (cname c) = Some j /\ plain (inode f j) /\ content f j = cur)
  /\ (forall n j, lookup f n = Some j -> n = cname c \/ exists i, i < length closed /\ n = kname c e (nth i keys kd))
  /\ NoDup (dir_names f).

Lemma tsinv_env c e lo w w' wr keys closed ts : TsInv c e lo w wr keys closed ts ->
  wfs w' = wfs w -> quiet w' -> woff w' = woff w -> wnow w' = wnow w -> TsInv c e lo w' wr keys closed ts.
Proof.
  intros [Q W Hnd Hoff Hc Hcp Hlen Hcl Hon Hko Hrg Htsr Hwr Hcap] F Q' O N'.
  constructor; try rewrite F; try assumption; [unfold eoff in *; rewrite O; exact Hoff | rewrite N'; exact Htsr].
Qed.

Lemma tsinv_reader_view c e lo w wr keys closed ts : TsInv c e lo w wr keys closed ts -> wpend wr = [] ->
  ts_view c e (wfs w) keys closed (cur_view w wr).
Proof.
  intros [Q W Hnd Hoff Hc Hcp Hlen Hcl Hon Hko Hrg Htsr Hwr Hcap] P.
  split; [exact Hlen|]. split.
  { intros i Hi. destruct (Hcl i Hi) as [j [Lj [Pj [Cj _]]]]. eauto. }
  split; [|split; [exact Hon | exact Hnd]].
  exists (wino wr). split; [exact Hc|]. split; [exact Hcp|]. unfold cur_view. rewrite P. symmetry. apply app_nil_r.
Qed.

Lemma stop_view_ts c e lo x wr keys closed ts roll : s_flw x = Some (st_ts c ts roll wr) -> TsInv c e lo (s_w x) wr keys closed ts ->
  ts_view c e (wfs (s_w (fst (sync_step x OStop)))) keys closed (cur_view (s_w x) wr).
Proof.
  intros Es I. cbn [sync_step]. rewrite Es. unfold st_ts. cbn [f_poisoned].
  rewrite drop_state_quiet by exact (ti_quiet _ _ _ _ _ _ _ _ I). cbn [fst s_w].
  destruct (tsinv_flushed c e lo (s_w x) wr keys closed ts I) as [I1 V1]. rewrite <- V1.
  exact (tsinv_reader_view c e lo _ _ keys closed ts I1 eq_refl).
Qed.

Lemma stop_rel_ts c crit e lo n x a : tscfg c crit -> RelT c e lo n x a ->
  let '(x', _) := step x OStop in
  match a with
  | None => names (wfs (s_w x')) = []
  | Some (closed, cur) => exists keys, ts_view c e (wfs (s_w x')) keys closed cur /\ keys_ok keys
                                       /\ (forall k, In k keys -> (lo <= fst k <= wnow (s_w x))%Z)
  end.
Proof.
  intros Hcfg R0. rewrite (step_sync_rel_ts c crit e lo n x a OStop Hcfg R0). destruct R0 as [Ht [Ha R]]. destruct a as [[closed cur]|].
  - destruct R as [keys [wr [roll [ts [Es [I [V Hn]]]]]]].
    pose proof (stop_view_ts c e lo x wr keys closed ts roll Es I) as S. rewrite V in S. destruct (sync_step x OStop) as [x' ob].
    pose proof (ti_range _ _ _ _ _ _ _ _ I) as Hrg. pose proof (ti_ts _ _ _ _ _ _ _ _ I) as Hts.
    exists keys. split; [exact S|]. split; [exact (ti_keys _ _ _ _ _ _ _ _ I) | intros k Ik; specialize (Hrg k Ik); lia].
  - destruct R as [Es [Q [Hn Hi]]]. cbn [sync_step]. rewrite Es. cbn [new_flw f_poisoned drop_state shutdown_state f_inner s_w]. exact Hn.
Qed.
