(* NumbersDirect naming with a cleanup strategy, part 2: the invariant NumDKInv, one rotation (mount_next with cleanup),
   every history of basic operations, and the end-to-end theorem numbersdirect_cleanup_stream:
   after the writer is stopped the directory holds exactly the file that was written last (r<L>, L = number of closed files),
   the newest n - 1 closed files as plain files, the next m closed files as archives with the same content, nothing else
   ((n, m) = klimd k: the effective limits, the current file counts as one of the n plain files, see NumDCleanupStep.v).
   The abstract side (aview, a_run, trace_ok, ...) is the one of Numbers naming (NumRun.v, NumCleanupRun.v). *)
Require Import FL.Base.Bytes FL.Base.BytesFacts FL.Fs.Fs FL.Fs.FsFacts FL.Names.FileSpec FL.Flw.Model
  FL.Flw.ModelFacts FL.Flw.QuietFacts FL.Flw.NumFs FL.Flw.NumInv FL.Flw.Run FL.Flw.RunFacts FL.Flw.NumRun FL.Flw.CleanupFacts
  FL.Flw.NumKillRestart FL.Flw.NumDInv FL.Flw.NumCleanupNames FL.Flw.NumCleanupStep FL.Flw.NumCleanupRun
  FL.Flw.NumDCleanupStep.
From Coq Require Import ZifyN ZifyNat ZifyBool.
Open Scope nat_scope.

(* ------------------------------------------------------------------ configurations, limits, shape *)
Definition numdkcfg (c : config) (crit : criterion) (k : cleanup) : Prop :=
  c_rot c = Some (crit, NNumbersDirect, k) /\ fts (c_spec c) = false /\ c_symlink c = false /\ c_async c = false
  /\ c_bg c = false.

(* side condition, needed only when there is a cleanup: the suffix is not (and does not end with .)gz.  It does not
   depend on the number L of closed files (the listing is ordered by the NUMBER of the infix); L is an argument only
   because the statements are phrased per L. *)
Definition dside (c : config) (k : cleanup) (L : nat) : Prop :=
  match klimd k with None => True | Some _ => sfx_ok (c_spec c) end.

(* with L closed files (the current file is r<L>): the archives are lo <= i < mid, the plain files mid <= i <= L *)
Definition d_lo (k : cleanup) (L : nat) : nat := match klimd k with None => 0 | Some (n, m) => S L - (n + m) end.
Definition d_mid (k : cleanup) (L : nat) : nat := match klimd k with None => 0 | Some (n, m) => S L - n end.
Definition dnew_lo (k : cleanup) (lo L : nat) : nat := match klimd k with None => lo | Some (n, m) => Nat.max lo (S L - (n + m)) end.
Definition dnew_mid (k : cleanup) (mid L : nat) : nat := match klimd k with None => mid | Some (n, m) => Nat.max mid (S L - n) end.

Lemma dnew_lo_step k L : dnew_lo k (d_lo k L) (S L) = d_lo k (S L).
Proof. unfold dnew_lo, d_lo. destruct (klimd k) as [[n m]|]; lia. Qed.
Lemma dnew_mid_step k L : dnew_mid k (d_mid k L) (S L) = d_mid k (S L).
Proof. unfold dnew_mid, d_mid. destruct (klimd k) as [[n m]|]; lia. Qed.
Lemma d_lo_0 k : d_lo k 0 = 0.
Proof. unfold d_lo. destruct (klimd k) as [[n m]|] eqn:E; [|reflexivity]. apply klimd_pos in E. lia. Qed.
Lemma d_mid_0 k : d_mid k 0 = 0.
Proof. unfold d_mid. destruct (klimd k) as [[n m]|] eqn:E; [|reflexivity]. apply klimd_pos in E. lia. Qed.
Lemma d_mid_le k L : d_mid k L <= L.
Proof. unfold d_mid. destruct (klimd k) as [[n m]|] eqn:E; [|lia]. apply klimd_pos in E. lia. Qed.
Lemma dside_le c k L L' : L <= L' -> dside c k L' -> dside c k L.
Proof. intros _ H. exact H. Qed.
Lemma dside_sfx c k L : sfx_ok (c_spec c) -> dside c k L.
Proof. intros Hs. unfold dside. destruct (klimd k); [exact Hs | exact I]. Qed.

(* ------------------------------------------------------------------ the invariant *)
(* the directory is described by kdir (NumCleanupStep.v) over the list of ALL numbered files: the closed ones and, as
   the last entry, what the current file holds on disk; the current file is in the plain part; there is no rCURRENT *)
Record NumDKInv (c : config) (w : world) (wr : writer) (closed : list bytes) (lo mid : nat) : Prop := {
  dk_quiet : quiet w;
  dk_wf : fs_wf (wfs w);
  dk_cur : lookup (wfs w) (rname c (length closed)) = Some (wino wr);
  dk_curplain : plain (inode (wfs w) (wino wr));
  dk_mid : mid <= length closed;
  dk_dir : kdir c (wfs w) (closed ++ [content (wfs w) (wino wr)]) lo mid;
  dk_nocur : lookup (wfs w) (cname c) = None;
  dk_wr : wr_ok wr;
  dk_cap : wcap wr = c_cap c }.

Definition st_ofdk (c : config) (k : cleanup) (n : nat) (roll : roll_state) (wr : writer) : flw :=
  {| f_cfg := c; f_inner := Active (Some (mk_rsk k (NSNumD (N.of_nat n)) roll)) wr (rname c n); f_poisoned := false |}.

(* ---- the cleanup keeps the invariant and moves the limits; the current file is not touched ---- *)
Lemma cleanup_dk c crit k w wr closed lo mid :
  numdkcfg c crit k -> dside c k (length closed) -> NumDKInv c w wr closed lo mid ->
  exists w', cleanup_impl c w k IFNum (Some (rname c (length closed))) = (Ok tt, w') /\ same_env w w'
    /\ NumDKInv c w' wr closed (dnew_lo k lo (length closed)) (dnew_mid k mid (length closed))
    /\ cur_view w' wr = cur_view w wr.
Proof.
  intros (Hrot & Hts & Hlink & Has & Hbg) Hside I. pose proof I as [Q W Hc Hcp Hmid KD Hnc Hwr Hcap].
  unfold dside, dnew_lo, dnew_mid in *. destruct (klimd k) as [[n m]|] eqn:Ek.
  - pose proof Hside as Hsfx. pose proof (klimd_pos _ _ _ Ek) as Hn.
    set (all := closed ++ [content (wfs w) (wino wr)]) in *.
    assert (Elen : length all = S (length closed)) by (unfold all; apply len_snoc).
    destruct (cleanup_numbers_d c w k n m all lo mid Hts Hsfx Ek Q W KD) as (w' & E & S & W' & KD' & SC & SR).
    rewrite Elen in KD', SR, E. replace (Datatypes.S (length closed) - 1) with (length closed) in E by lia.
    assert (SL : same_at (wfs w) (wfs w') (rname c (length closed))) by (apply SR; lia).
    destruct (same_at_content _ _ _ _ SL Hc) as [Lc' Ic'].
    assert (Ec : content (wfs w') (wino wr) = content (wfs w) (wino wr)) by (unfold content; rewrite Ic'; reflexivity).
    exists w'. split; [exact E|]. split; [exact S|]. split.
    + constructor; auto.
      * apply S.
      * rewrite Ic'. exact Hcp.
      * lia.
      * rewrite Ec. exact KD'.
      * destruct SC as [SC _]. rewrite SC. exact Hnc.
    + unfold cur_view. rewrite Ec. reflexivity.
  - apply klimd_none in Ek. subst k. exists w. split; [reflexivity|]. split; [apply same_env_refl; exact Q|]. split; [exact I | reflexivity].
Qed.

(* ---- the steps on the directory, for files named by a function (NumCleanupNames.v): the file being written is the newest
   named file nmf L, L = number of closed files; `closed` of gdir lists the contents of all named files, the last entry
   being what the file being written holds on disk ---- *)
(* ---- the file system after create + flush of the old writer ---- *)
Lemma gdir_rotate_direct nmf cn f closed lo mid old pend now :
  rnames nmf cn (S (S (length closed))) ->
  fs_wf f -> gdir nmf cn f (closed ++ [content f old]) lo mid -> mid <= length closed ->
  lookup f (nmf (length closed)) = Some old -> lookup f cn = None ->
  lookup f (nmf (S (length closed))) = None /\
  let f3 := append_ino (fst (create_file f (nmf (S (length closed))) 0%N now)) old pend in
  let new := snd (create_file f (nmf (S (length closed))) 0%N now) in
  fs_wf f3 /\ lookup f3 (nmf (S (length closed))) = Some new /\ inode f3 new = fresh_file now
  /\ lookup f3 cn = None
  /\ gdir nmf cn f3 ((closed ++ [content f old ++ pend]) ++ [content f3 new]) lo mid.
Proof.
  intros GN W KD Hmid Hc Hnc. pose proof KD as [Hle Hnd Hp Ha Hon]. set (L := length closed) in *.
  rewrite len_snoc in Hle, Hp, Hon. fold L in Hle, Hp, Hon.
  assert (Ht : lookup f (nmf (S L)) = None).
  { destruct (lookup f (nmf (S L))) as [j|] eqn:E; [|reflexivity]. exfalso.
    destruct (Hon _ _ E) as [E1|[(i & Hi & E1)|(i & Hi & E1)]].
    - exact (proj1 (rn_cn _ _ _ GN (S L) ltac:(lia)) E1).
    - apply (rn_inj _ _ _ GN) in E1; lia.
    - symmetry in E1. apply (rn_gz _ _ _ GN) in E1; [exact E1 | lia | lia]. }
  split; [exact Ht|].
  pose proof (wf_bound _ W _ _ Hc) as Hold.
  pose proof (direct_fs_spec f (nmf (S L)) old pend now W Hold Ht) as R.
  cbn zeta in *. destruct R as [W3 [Hnew [L3t [L3o [Inew [Iold Ioth]]]]]].
  set (new := snd (create_file f (nmf (S L)) 0%N now)) in *.
  set (f3 := append_ino (fst (create_file f (nmf (S L)) 0%N now)) old pend) in *.
  split; [exact W3|]. split; [exact L3t|]. split; [exact Inew|].
  split. { rewrite L3o; [exact Hnc | intros E; exact (proj1 (rn_cn _ _ _ GN (S L) ltac:(lia)) (eq_sym E))]. }
  assert (Cnew : content f3 new = []) by (unfold content; rewrite Inew; reflexivity).
  rewrite Cnew.
  assert (Keep : forall x j, x <> nmf L -> lookup f x = Some j ->
                 lookup f3 x = Some j /\ inode f3 j = inode f j).
  { intros x j H2 Lj.
    assert (H1 : x <> nmf (S L)) by (intros ->; congruence).
    split; [rewrite L3o by assumption; exact Lj|]. apply Ioth.
    - pose proof (wf_bound _ W _ _ Lj). rewrite Hnew. lia.
    - intros ->. apply H2. exact (wf_inj _ W _ _ _ Lj Hc). }
  constructor.
  - rewrite !len_snoc. fold L. lia.
  - apply nd_append. apply nd_create; [exact Ht | exact Hnd].
  - rewrite !len_snoc. fold L. intros i Hi.
    destruct (Nat.eq_dec i (S L)) as [->|Hne1]; [|destruct (Nat.eq_dec i L) as [->|Hne2]].
    + exists new. split; [exact L3t|]. split; [rewrite Inew; split; reflexivity|].
      rewrite Cnew. rewrite app_nth2 by (rewrite len_snoc; fold L; lia). rewrite len_snoc. fold L. rewrite Nat.sub_diag. reflexivity.
    + destruct (Hp L ltac:(lia)) as (j & Lj & Pj & _). rewrite Hc in Lj. injection Lj as <-.
      exists old. split; [rewrite L3o; [exact Hc | intros E; apply (rn_inj _ _ _ GN) in E; lia]|]. split.
      * rewrite Iold. exact Pj.
      * unfold content at 1. rewrite Iold. cbn [with_data fdata].
        rewrite app_nth1 by (rewrite len_snoc; fold L; lia). rewrite app_nth2 by (fold L; lia). fold L. rewrite Nat.sub_diag. reflexivity.
    + destruct (Hp i ltac:(lia)) as (j & Lj & Pj & Cj).
      destruct (Keep (nmf i) j) as [Lj' Ij']; [intros E; apply (rn_inj _ _ _ GN) in E; lia | exact Lj|].
      exists j. split; [exact Lj'|]. unfold content. rewrite Ij'. split; [exact Pj|].
      rewrite app_nth1 by (rewrite len_snoc; fold L; lia). rewrite app_nth1 by (fold L; lia).
      rewrite app_nth1 in Cj by (fold L; lia). exact Cj.
  - intros i Hi. destruct (Ha i Hi) as (j & Lj & Dj & Gj & Fj).
    destruct (Keep (gzf nmf i) j) as [Lj' Ij']; [apply (rn_gz _ _ _ GN); lia | exact Lj|].
    exists j. rewrite Ij'. split; [exact Lj'|]. split; [|auto].
    rewrite app_nth1 by (rewrite len_snoc; fold L; lia). rewrite app_nth1 by (fold L; lia).
    rewrite app_nth1 in Dj by (fold L; lia). exact Dj.
  - intros x j Hx. rewrite !len_snoc. fold L.
    destruct (beq_spec x (nmf (S L))) as [->|Hn1].
    + right. left. exists (S L). split; [lia | reflexivity].
    + rewrite L3o in Hx by assumption. destruct (Hon _ _ Hx) as [E|[(i & Hi & E)|(i & Hi & E)]]; [left; exact E| |].
      * right. left. exists i. split; [lia | exact E].
      * right. right. exists i. split; [lia | exact E].
Qed.

(* ---- appending to the current inode ---- *)
Lemma gdir_append_direct nmf cn f closed lo mid old x :
  rnames nmf cn (S (length closed)) -> fs_wf f -> lookup f (nmf (length closed)) = Some old -> mid <= length closed ->
  gdir nmf cn f (closed ++ [content f old]) lo mid ->
  gdir nmf cn (append_ino f old x) (closed ++ [content f old ++ x]) lo mid.
Proof.
  intros GN W Hc Hmid [Hle Hnd Hp Ha Hon]. rewrite len_snoc in Hle, Hp, Hon.
  pose proof (wf_bound _ W _ _ Hc) as Hold.
  assert (Oth : forall n j, n <> nmf (length closed) -> lookup f n = Some j -> inode (append_ino f old x) j = inode f j).
  { intros n j Hn Lj. rewrite inode_append by assumption. destruct (Nat.eqb_spec j old) as [->|_]; [|reflexivity].
    exfalso. apply Hn. exact (wf_inj _ W _ _ _ Lj Hc). }
  constructor.
  - rewrite len_snoc. exact Hle.
  - apply nd_append. exact Hnd.
  - rewrite len_snoc. intros i Hi. destruct (Nat.eq_dec i (length closed)) as [->|Hne].
    + destruct (Hp (length closed) Hi) as (j & Lj & Pj & _). rewrite Hc in Lj. injection Lj as <-.
      exists old. rewrite lookup_append. split; [exact Hc|]. split.
      * rewrite inode_append, Nat.eqb_refl by assumption. exact Pj.
      * rewrite content_append, Nat.eqb_refl by assumption. rewrite app_nth2, Nat.sub_diag by lia. reflexivity.
    + destruct (Hp i Hi) as (j & Lj & Pj & Cj). exists j. rewrite lookup_append. split; [exact Lj|].
      assert (Hn : nmf i <> nmf (length closed)) by (intros E; apply (rn_inj _ _ _ GN) in E; lia).
      unfold content. rewrite (Oth _ _ Hn Lj). split; [exact Pj|].
      rewrite app_nth1 by lia. rewrite app_nth1 in Cj by lia. exact Cj.
  - intros i Hi. destruct (Ha i Hi) as (j & Lj & Dj & R). exists j. rewrite lookup_append. split; [exact Lj|].
    assert (Hn : gzf nmf i <> nmf (length closed)) by (apply (rn_gz _ _ _ GN); lia).
    rewrite (Oth _ _ Hn Lj). split; [|exact R].
    rewrite app_nth1 by lia. rewrite app_nth1 in Dj by lia. exact Dj.
  - rewrite len_snoc. intros n j. rewrite lookup_append. apply Hon.
Qed.

(* ---- the first file on the empty directory ---- *)
Lemma gdir_first_direct nmf cn now :
  let f := {| names := [(nmf 0, 0)]; inodes := [fresh_file now] |} in
  gdir nmf cn f [content f 0] 0 0 /\ lookup f (nmf 0) = Some 0 /\ fs_wf f /\ content f 0 = [] /\ inode f 0 = fresh_file now.
Proof.
  cbn zeta. set (f := {| names := [(nmf 0, 0)]; inodes := [fresh_file now] |}).
  assert (Lc : lookup f (nmf 0) = Some 0) by (unfold lookup; cbn; rewrite beq_refl; reflexivity).
  assert (C0 : content f 0 = []) by reflexivity.
  split; [|split; [exact Lc|split; [|split; [exact C0 | reflexivity]]]].
  - constructor.
    + cbn [length]. lia.
    + unfold nodup_names, dir_names. cbn [names map fst]. constructor; [intros [] | constructor].
    + cbn [length]. intros i Hi. assert (i = 0) by lia. subst i. exists 0. split; [exact Lc|]. split; [split; reflexivity | reflexivity].
    + intros i Hi. lia.
    + intros n j. unfold lookup; cbn. destruct (beq_spec (nmf 0) n) as [<-|]; [|discriminate].
      intros _. right. left. exists 0. cbn [length]. split; [lia | reflexivity].
  - split.
    + intros a j. unfold lookup; cbn. destruct (beq (nmf 0) a); [|discriminate]. intros E; injection E as <-. lia.
    + intros a b j. unfold lookup; cbn. destruct (beq_spec (nmf 0) a), (beq_spec (nmf 0) b); try discriminate. congruence.
Qed.

Lemma kdir_rotate_d c f closed lo mid old pend now :
  fs_wf f -> kdir c f (closed ++ [content f old]) lo mid -> mid <= length closed ->
  lookup f (rname c (length closed)) = Some old -> lookup f (cname c) = None ->
  lookup f (rname c (S (length closed))) = None /\
  let f3 := append_ino (fst (create_file f (rname c (S (length closed))) 0%N now)) old pend in
  let new := snd (create_file f (rname c (S (length closed))) 0%N now) in
  fs_wf f3 /\ lookup f3 (rname c (S (length closed))) = Some new /\ inode f3 new = fresh_file now
  /\ lookup f3 (cname c) = None
  /\ kdir c f3 ((closed ++ [content f old ++ pend]) ++ [content f3 new]) lo mid.
Proof.
  intros W KD Hmid Hc Hnc.
  destruct (gdir_rotate_direct (rname c) (cname c) f closed lo mid old pend now (rnames_numbers c _) W
              (proj1 (kdir_gdir _ _ _ _ _) KD) Hmid Hc Hnc) as (Ht & W3 & L3 & I3 & N3 & KD3).
  split; [exact Ht|]. cbn zeta. split; [exact W3|]. split; [exact L3|]. split; [exact I3|]. split; [exact N3|].
  apply kdir_gdir. exact KD3.
Qed.

(* ---- one rotation ---- *)
Lemma mount_next_rotates_dk c crit k w wr closed roll force :
  numdkcfg c crit k -> dside c k (S (length closed)) ->
  NumDKInv c w wr closed (d_lo k (length closed)) (d_mid k (length closed)) ->
  force || rotation_necessary w roll = true ->
  exists w' wr' roll',
    mount_next c w (Active (Some (mk_rsk k (NSNumD (N.of_nat (length closed))) roll)) wr (rname c (length closed))) force
      = (Ok tt, w', Active (Some (mk_rsk k (NSNumD (N.of_nat (length (closed ++ [cur_view w wr])))) roll')) wr'
                          (rname c (length (closed ++ [cur_view w wr]))))
    /\ NumDKInv c w' wr' (closed ++ [cur_view w wr]) (d_lo k (S (length closed))) (d_mid k (S (length closed)))
    /\ cur_view w' wr' = [] /\ roll_size_ok roll' 0 /\ same_env w w'
    /\ (forall m cur, roll = RSize m cur -> exists cur', roll' = RSize m cur')
    /\ roll' = roll_reset roll (wnow w).
Proof.
  intros Hcfg Hside I Hnec. pose proof Hcfg as (Hrot & Hts & Hlink & Has & Hbg).
  pose proof I as [Q W Hc Hcp Hmid KD Hnc Hwr Hcap].
  assert (Elen : length (closed ++ [cur_view w wr]) = S (length closed)) by apply len_snoc.
  rewrite Elen.
  destruct (kdir_rotate_d c (wfs w) closed _ _ (wino wr) (wpend wr) (wnow w) W KD Hmid Hc Hnc) as (Ht & R).
  cbn zeta in R. destruct R as (W3 & L3t & Inew & Hnc3 & KD3).
  pose proof (mount_next_fresh c w (mk_rsk k (NSNumD (N.of_nat (length closed))) roll) wr (rname c (length closed)) force
                _ w _ Hnec (conj eq_refl (conj eq_refl eq_refl)) Q Hlink) as M.
  rewrite (name_of_fixed c w) in M by assumption. fold (nm c (number_infix (N.of_nat (length closed) + 1))) in M.
  rewrite rname_S in M. rewrite (M Ht). clear M. cbn [mk_rsk rs_roll rs_naming rs_cleanup rs_bg].
  unfold cleanup_or_queue. cbn [ns_filter ns_writes_direct].
  set (new := snd (create_file (wfs w) (rname c (S (length closed))) 0%N (wnow w))) in *.
  set (w3 := flushed (set_fs w (fst (create_file (wfs w) (rname c (S (length closed))) 0%N (wnow w)))) wr).
  set (wr' := {| wino := length (inodes (wfs w)); wpend := []; wcap := c_cap c |}).
  assert (I3 : NumDKInv c w3 wr' (closed ++ [cur_view w wr]) (d_lo k (length closed)) (d_mid k (length closed))).
  { constructor.
    - exact Q.
    - exact W3.
    - rewrite Elen. exact L3t.
    - rewrite (Inew : inode (wfs w3) (wino wr') = _). split; reflexivity.
    - rewrite Elen. lia.
    - exact KD3.
    - exact Hnc3.
    - apply wr_ok_nil.
    - reflexivity. }
  assert (Hside' : dside c k (length (closed ++ [cur_view w wr]))) by (rewrite Elen; exact Hside).
  destruct (cleanup_dk c crit k w3 wr' _ _ _ Hcfg Hside' I3) as (w4 & Ecl & S4 & I4 & V4).
  rewrite Elen in Ecl. rewrite Ecl. rewrite Elen, dnew_lo_step, dnew_mid_step in I4.
  exists w4, wr', (roll_reset roll (wnow w)).
  split. { rewrite (reset_size_and_date_born w3 roll _ _ (file_of_lookup _ _ _ L3t)). rewrite Inew.
           replace (N.of_nat (S (length closed))) with (N.of_nat (length closed) + 1)%N by lia. reflexivity. }
  split; [exact I4|].
  split. { rewrite V4. unfold cur_view, content. rewrite (Inew : inode (wfs w3) (wino wr') = _). reflexivity. }
  split. { destruct roll; cbn; auto. }
  split; [exact (same_env_trans _ _ _ (same_env_set_fs w _ Q) S4)|].
  split; [intros m cur ->; cbn; eauto | reflexivity].
Qed.

(* ---- appending to the current inode keeps the invariant ---- *)
Lemma numdkinv_append c w w' wr wr' closed lo mid x :
  NumDKInv c w wr closed lo mid -> wfs w' = append_ino (wfs w) (wino wr) x -> same_env w w' ->
  wino wr' = wino wr -> wcap wr' = wcap wr -> wr_ok wr' ->
  NumDKInv c w' wr' closed lo mid /\ content (wfs w') (wino wr') = content (wfs w) (wino wr) ++ x.
Proof.
  intros [Q W Hc Hcp Hmid KD Hnc Hwr Hcap] F SE Ei Ec Hok.
  pose proof (wf_bound _ W _ _ Hc) as Hold.
  assert (C' : content (wfs w') (wino wr') = content (wfs w) (wino wr) ++ x).
  { rewrite F, Ei, content_append, Nat.eqb_refl by assumption. reflexivity. }
  split; [|exact C'].
  constructor.
  - exact (proj1 SE).
  - rewrite F. apply wf_append. exact W.
  - rewrite F, lookup_append, Ei. exact Hc.
  - rewrite F, Ei, inode_append, Nat.eqb_refl by assumption. exact Hcp.
  - exact Hmid.
  - rewrite C', F. apply kdir_gdir.
    apply (gdir_append_direct (rname c) (cname c)); [apply rnames_numbers | exact W | exact Hc | exact Hmid | apply kdir_gdir; exact KD].
  - rewrite F, lookup_append. exact Hnc.
  - exact Hok.
  - congruence.
Qed.

(* ---- the first write initialises the writer on the empty directory; the initial cleanup finds only r00000 ---- *)
Lemma initialize_empty_dk c crit k w :
  numdkcfg c crit k -> dside c k 0 -> quiet w -> names (wfs w) = [] -> inodes (wfs w) = [] ->
  exists w' wr roll,
    initialize c w = (Ok (Active (Some (mk_rsk k (NSNumD 0) roll)) wr (rname c 0)), w')
    /\ NumDKInv c w' wr [] 0 0 /\ cur_view w' wr = [] /\ roll_size_ok roll 0 /\ same_env w w'
    /\ (forall m, crit = CSize m -> roll = RSize m 0)
    /\ roll = roll_init crit (wnow w).
Proof.
  intros Hcfg Hside Q Hn Hi. pose proof Hcfg as (Hrot & Hts & Hlink & Has & Hbg).
  unfold initialize. rewrite Hrot. unfold init_naming, with_listing.
  rewrite tick_quiet by assumption.
  unfold get_highest_index, list_log_gz. rewrite existing_rot_empty by assumption. cbn [filter_map_opt max_opt bind].
  rewrite (open_log_file_fresh c w _ Q Hlink) by (apply lookup_empty; exact Hn). cbn [bind].
  rewrite (name_of_fixed c w) by assumption. fold (nm c (number_infix 0)).
  change (nm c (number_infix 0)) with (rname c 0).
  unfold create_file. cbn [fst]. rewrite Hn, Hi. cbn [length app].
  set (w2 := set_fs w {| names := [(rname c 0, 0)]; inodes := [fresh_file (wnow w)] |}).
  set (wr := {| wino := 0; wpend := []; wcap := c_cap c |}).
  destruct (gdir_first_direct (rname c) (cname c) (wnow w)) as (G0 & Lc & W0 & C0 & I0).
  rewrite (roll_new_quiet w2 crit _ _ _ Q (file_of_lookup _ _ _ Lc)), I0, roll_of_fresh. cbn [bind].
  assert (I2 : NumDKInv c w2 wr [] 0 0).
  { constructor.
    - exact Q.
    - exact W0.
    - exact Lc.
    - split; reflexivity.
    - cbn [length]. lia.
    - apply kdir_gdir. exact G0.
    - unfold lookup. cbn. destruct (beq_spec (rname c 0) (cname c)) as [E|_]; [destruct (rname_not_cname _ _ E) | reflexivity].
    - apply wr_ok_nil.
    - reflexivity. }
  (* the initial cleanup *)
  assert (Ecl : forall d, match k with KNever => (Ok tt, w2) | _ => cleanup_impl c w2 k (ns_filter (NSNumD 0)) (if naming_writes_direct NNumbersDirect then Some d else None) end
                = cleanup_impl c w2 k IFNum (Some d)) by (intros d; destruct k; reflexivity).
  rewrite Ecl. clear Ecl.
  destruct (cleanup_dk c crit k w2 wr [] 0 0 Hcfg Hside I2) as (w4 & E4 & S4 & I4 & V4). cbn [length] in E4.
  rewrite E4. cbn [bind].
  assert (Ebg : match k with KNever => false | _ => c_bg c end = false) by (destruct k; auto).
  rewrite Ebg.
  assert (Z0 : dnew_lo k 0 (length (@nil bytes)) = 0 /\ dnew_mid k 0 (length (@nil bytes)) = 0).
  { unfold dnew_lo, dnew_mid. destruct (klimd k) as [[n m]|] eqn:Ek; cbn [length]; [|split; reflexivity].
    apply klimd_pos in Ek. split; lia. }
  destruct Z0 as [Z1 Z2]. rewrite Z1, Z2 in I4.
  exists w4, wr, (roll_init crit (wnow w)). split; [reflexivity|]. split; [exact I4|].
  split; [rewrite V4; reflexivity|].
  split; [apply roll_init_size_ok|]. split; [exact (same_env_trans _ _ _ (same_env_set_fs w _ Q) S4)|].
  split; [intros m ->; reflexivity | reflexivity].
Qed.

(* ------------------------------------------------------------------ the run *)
(* the invariant with the limits that belong to the number of closed files *)
Definition DKInv (c : config) (k : cleanup) (w : world) (wr : writer) (closed : list bytes) : Prop :=
  NumDKInv c w wr closed (d_lo k (length closed)) (d_mid k (length closed)).

Lemma dkinv_rotates c crit k : numdkcfg c crit k ->
  rotates_spec c k (dside c k 0) (DKInv c k) (fun n => NSNumD (N.of_nat n)) (rname c).
Proof.
  intros Hcfg w wr closed roll force Hs I Hn.
  destruct (mount_next_rotates_dk c crit k w wr closed roll force Hcfg Hs I Hn) as (w' & wr' & roll' & E & I' & R).
  exists w', wr', roll'. split; [exact E|]. split; [|exact R]. unfold DKInv. rewrite len_snoc. exact I'.
Qed.
Lemma dkinv_init c crit k : numdkcfg c crit k ->
  init_spec c crit k (dside c k 0) (DKInv c k) (fun n => NSNumD (N.of_nat n)) (rname c).
Proof.
  intros Hcfg w Hs Q Hn Hi. destruct (initialize_empty_dk c crit k w Hcfg Hs Q Hn Hi) as (w' & wr & roll & E & I & R).
  exists w', wr, roll. split; [exact E|]. split; [|exact R]. unfold DKInv. cbn [length]. rewrite d_lo_0, d_mid_0. exact I.
Qed.

Definition RelDK (c : config) (crit : criterion) (k : cleanup) (x : sys) (a : aview) : Prop :=
  s_tl x = [] /\ wacts (s_w x) = 0 /\
  match a with
  | None => s_flw x = Some (new_flw c) /\ quiet (s_w x) /\ names (wfs (s_w x)) = [] /\ inodes (wfs (s_w x)) = []
  | Some (closed, cur) =>
    exists wr roll, s_flw x = Some (st_ofdk c k (length closed) roll wr)
      /\ NumDKInv c (s_w x) wr closed (d_lo k (length closed)) (d_mid k (length closed))
      /\ cur_view (s_w x) wr = cur /\ roll_size_ok roll (length cur)
      /\ (forall m, crit = CSize m -> exists z, roll = RSize m z)
  end.

Lemma numdkinv_env c w w' wr closed lo mid : NumDKInv c w wr closed lo mid -> wfs w' = wfs w -> quiet w' -> NumDKInv c w' wr closed lo mid.
Proof. intros [Q W Hc Hcp Hmid KD Hnc Hwr Hcap] F Q'. constructor; try rewrite F; assumption. Qed.


Lemma step_sync_rel_dk c crit k x a o : numdkcfg c crit k -> RelDK c crit k x a -> step x o = sync_step x o.
Proof.
  intros (_ & Hts & _ & Ha & _).
  exact (step_sync_rel_gen c crit k (DKInv c k) (fun n => NSNumD (N.of_nat n)) (rname c) Hts Ha x a o).
Qed.

(* one basic operation: the relation is kept, the operation succeeds (no error, no panic); the rotation flag, the next
   rotation state and the clock are functions of the clock and the rotation state before *)
Lemma step_rel_dk0 c crit k x a o :
  numdkcfg c crit k -> dside c k 0 -> RelDK c crit k x a -> basic_op o ->
  let '(x', ob) := step x o in
  RelDK c crit k x' (a_step a o (rot_of ob))
  /\ (forall b m, (o = OWrite b \/ o = OPlain b) -> crit = CSize m ->
        ob = ObsRes 0 (m <? N.of_nat (length (match a with Some (_, cu) => cu | None => [] end)))%N)
  /\ trace_ok crit x x' o ob
  /\ obs_ok ob /\ werrs (s_w x') = werrs (s_w x).
Proof.
  intros Hcfg. pose proof Hcfg as (_ & Hts & _ & Ha & _).
  exact (step_rel_gen c crit k (dside c k 0) (DKInv c k) (fun n => NSNumD (N.of_nat n)) (rname c) Hts Ha
    (fun w wr cl => dk_quiet c w wr cl _ _) (fun w wr cl => dk_wr c w wr cl _ _)
    (fun w w' wr wr' cl x => numdkinv_append c w w' wr wr' cl _ _ x)
    (fun w w' wr cl => numdkinv_env c w w' wr cl _ _) (dkinv_rotates c crit k Hcfg) (dkinv_init c crit k Hcfg) x a o).
Qed.

Lemma run_rel_dk c crit k : numdkcfg c crit k -> forall ops x a, RelDK c crit k x a -> Forall basic_op ops ->
  dside c k (nclosed (a_run a ops (snd (run x ops)))) ->
  RelDK c crit k (fst (run x ops)) (a_run a ops (snd (run x ops))) /\ Forall obs_ok (snd (run x ops)).
Proof.
  intros Hcfg ops x a R Hb Hside. pose proof Hcfg as (_ & Hts & _ & Ha & _).
  exact (run_rel_gen c crit k (dside c k 0) (DKInv c k) (fun n => NSNumD (N.of_nat n)) (rname c) Hts Ha
    (fun w wr cl => dk_quiet c w wr cl _ _) (fun w wr cl => dk_wr c w wr cl _ _)
    (fun w w' wr wr' cl x => numdkinv_append c w w' wr wr' cl _ _ x)
    (fun w w' wr cl => numdkinv_env c w w' wr cl _ _) (dkinv_rotates c crit k Hcfg) (dkinv_init c crit k Hcfg) Hside ops x a R Hb).
Qed.

(* with a size criterion the abstract run is a function of the operations alone *)
Lemma run_size_dk0 c k m : numdkcfg c (CSize m) k -> dside c k 0 -> forall ops x a, RelDK c (CSize m) k x a -> Forall basic_op ops ->
  a_run a ops (snd (run x ops)) = s_run m a ops.
Proof.
  intros Hcfg Hside. apply (run_size_of_steps (RelDK c (CSize m) k) m). intros x a o R Ho.
  pose proof (step_rel_dk0 c (CSize m) k x a o Hcfg Hside R Ho) as S. destruct (step x o) as [x1 ob].
  destruct S as (R1 & C1 & _). split; [exact R1|]. intros b Hw. exact (C1 b m Hw eq_refl).
Qed.

Lemma run_size_dk c k m : numdkcfg c (CSize m) k -> forall ops x a, RelDK c (CSize m) k x a -> Forall basic_op ops ->
  dside c k (nclosed (a_run a ops (snd (run x ops)))) ->
  a_run a ops (snd (run x ops)) = s_run m a ops.
Proof. intros Hcfg ops x a R Hb Hside. exact (run_size_dk0 c k m Hcfg Hside ops x a R Hb). Qed.

(* ------------------------------------------------------------------ stop: what is left in the directory *)
(* the numbered files r<lo> .. r<L> with the contents closed ++ [cur]: archives below mid, plain from mid on (the last
   one, r<L>, is the file that was being written), no rCURRENT, nothing else *)
Definition dkreader_view (c : config) (f : fs) (closed : list bytes) (cur : bytes) (lo mid : nat) : Prop :=
  kdir c f (closed ++ [cur]) lo mid /\ mid <= length closed /\ lookup f (cname c) = None.

Lemma stop_rel_dk c crit k x a : numdkcfg c crit k -> RelDK c crit k x a ->
  let '(x', ob) := step x OStop in
  ob = ObsRes 0%N false /\
  match a with
  | None => names (wfs (s_w x')) = []
  | Some (closed, cur) => dkreader_view c (wfs (s_w x')) closed cur (d_lo k (length closed)) (d_mid k (length closed))
  end.
Proof.
  intros (_ & Hts & _ & Ha & _) R0.
  pose proof (stop_rel_gen c crit k (DKInv c k) (fun n => NSNumD (N.of_nat n)) (rname c) Hts Ha
    (fun w wr cl => dk_quiet c w wr cl _ _) (fun w w' wr wr' cl x => numdkinv_append c w w' wr wr' cl _ _ x) x a R0) as S.
  destruct (step x OStop) as [x' ob]. destruct S as [Eo S]. split; [exact Eo|]. destruct a as [[closed cur]|]; [|exact S].
  destruct S as (w & wr & F & I & P & V). rewrite F. destruct I as [Q W Hc Hcp Hmid KD Hnc Hwr Hcap].
  assert (Ec : content (wfs w) (wino wr) = cur) by (unfold cur_view in V; rewrite P, app_nil_r in V; exact V).
  rewrite Ec in KD. split; [exact KD|]. split; [exact Hmid | exact Hnc].
Qed.

Lemma start_rel_dk c crit k t0 off : RelDK c crit k (fst (step (sys0 t0 off) (OStart c))) None.
Proof. cbn. repeat split. Qed.

(* ------------------------------------------------------------------ THE THEOREM (stream form) *)
(* a is the reader's view that the run WOULD leave without cleanup (closed files in order, the file being written): its
   concatenation is what was written.  The directory left behind holds the file being written, the newest n - 1 closed
   files as they are and the next m as archives - and nothing else; and no operation fails or panics. *)
Theorem numbersdirect_cleanup_stream c crit k t0 off ops :
  numdkcfg c crit k -> Forall basic_op ops ->
  let x0 := fst (step (sys0 t0 off) (OStart c)) in
  let a := a_run None ops (snd (run x0 ops)) in
  dside c k (nclosed a) ->
  let r := run (sys0 t0 off) (OStart c :: ops ++ [OStop]) in
  let f := wfs (s_w (fst r)) in
  flat a = written ops
  /\ match a with
     | None => names f = []
     | Some (closed, cur) => dkreader_view c f closed cur (d_lo k (length closed)) (d_mid k (length closed))
     end
  /\ Forall obs_ok (snd r).
Proof.
  intros Hcfg Hb x0 a Hside r f. unfold f, r. clear f r. cbn [run]. fold x0.
  destruct (step (sys0 t0 off) (OStart c)) as [x0' ob0] eqn:E0. cbn [fst] in x0. subst x0.
  pose proof (start_rel_dk c crit k t0 off) as R0. rewrite E0 in R0. cbn [fst] in R0.
  assert (K0 : obs_ok ob0) by (cbn in E0; injection E0 as _ <-; reflexivity).
  rewrite run_app. pose proof (run_rel_dk c crit k Hcfg ops x0' None R0 Hb Hside) as [R1 K1]. pose proof (run_length ops x0') as Len.
  fold a in R1. unfold a in *. clear a.
  destruct (run x0' ops) as [x1 obs1]. cbn [fst snd] in *.
  pose proof (stop_rel_dk c crit k x1 _ Hcfg R1) as S. cbn [run]. destruct (step x1 OStop) as [x2 ob2]. cbn [fst snd].
  destruct S as [-> S].
  split; [|split; [exact S|]].
  - rewrite (a_run_flat ops None obs1 Hb Len). reflexivity.
  - constructor; [exact K0|]. apply Forall_app. split; [exact K1|]. repeat constructor.
Qed.
Print Assumptions numbersdirect_cleanup_stream.
