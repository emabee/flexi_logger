(* Timestamps naming: sequences of runs on the same directory.  A writer that starts on the directory that earlier writers
   left behind never destroys, truncates or reorders what they wrote, and no file name is used twice: the closed files are
   named by keys (second of creation, position within the second) that satisfy keys_ok over the WHOLE history.
   The directory between two writers is described by a tview (keys and contents of the closed files, content and birth
   second of rCURRENT; None: empty); ExtT d d': d' continues d.  IdleT / PreT / ActT: no writer / a writer that has not
   written / a writer that has written; GRelT: the state of one run that started on d0.  A history is a list of trun (clock
   advance, configuration, operations), runs_ops_t its operations. *)
Require Import FL.Base.Bytes FL.Base.BytesFacts FL.Base.PathName FL.Fs.Fs FL.Fs.FsFacts FL.Time.Civil FL.Time.TsFormat
  FL.Names.FileSpec FL.Names.NamesFacts FL.Names.SortFacts FL.Flw.Model FL.Flw.ModelFacts FL.Flw.NumFs FL.Flw.NumInv FL.Flw.Run
  FL.Flw.RunFacts FL.Flw.QuietFacts FL.Flw.NumRun FL.Oracles.O_Flw FL.Flw.NumTheorems FL.Flw.NumListing FL.Flw.NumRestart
  FL.Flw.TsCal FL.Flw.TsTime FL.Flw.TsNames FL.Flw.TsInv FL.Flw.TsRun FL.Flw.TsTheorems FL.Flw.TsRestartInv.
Import String.StringSyntax.
Open Scope nat_scope.

(* ------------------------------------------------------------------ the abstract view *)
(* None: the directory is empty.  Some (keys, closed, cur, ts): the closed files in the order of their closing, with their
   keys; the content of rCURRENT (including what its writer still buffers); the birth second of rCURRENT *)
Definition tview := option (list key * list bytes * bytes * Z).
Definition closedT (d : tview) : list bytes := match d with Some (_, cl, _, _) => cl | None => [] end.
Definition flatT (d : tview) : bytes := match d with Some (_, cl, cu, _) => concat cl ++ cu | None => [] end.

(* d' continues d: either nothing was closed (same keys, same closed files, the same current file - same birth second -,
   possibly longer), or the current file of d was closed - possibly after more was appended to it - under the key of ITS
   birth second, and further files follow.  Nothing that was closed changes its key or its content. *)
Definition ExtT (d d' : tview) : Prop :=
  match d with
  | None => True
  | Some (keys, closed, cur, ts) =>
    match d' with
    | None => False
    | Some (keys', closed', cur', ts') =>
      (keys' = keys /\ closed' = closed /\ ts' = ts /\ exists t, cur' = cur ++ t)
      \/ (exists t mk mc, keys' = keys ++ (ts, count ts keys) :: mk /\ closed' = closed ++ (cur ++ t) :: mc)
    end
  end.

Lemma ExtT_refl d : ExtT d d.
Proof.
  destruct d as [[[[keys closed] cur] ts]|]; cbn [ExtT]; [|exact Logic.I].
  left. repeat split. exists []. rewrite app_nil_r. reflexivity.
Qed.

Lemma ExtT_trans d1 d2 d3 : ExtT d1 d2 -> ExtT d2 d3 -> ExtT d1 d3.
Proof.
  destruct d1 as [[[[k1 c1] u1] t1]|]; [|intros; exact Logic.I].
  destruct d2 as [[[[k2 c2] u2] t2]|]; [|intros []].
  destruct d3 as [[[[k3 c3] u3] t3]|]; [|intros _ []].
  cbn [ExtT]. intros [[-> [-> [-> [t ->]]]]|[t [mk [mc [-> ->]]]]] [[-> [-> [-> [t' ->]]]]|[t' [mk' [mc' [-> ->]]]]].
  - left. repeat split. exists (t ++ t'). rewrite app_assoc. reflexivity.
  - right. exists (t ++ t'), mk', mc'. rewrite app_assoc. split; reflexivity.
  - right. exists t, mk, mc. split; reflexivity.
  - right. exists t, (mk ++ (t2, count t2 (k1 ++ (t1, count t1 k1) :: mk)) :: mk'), (mc ++ (u2 ++ t') :: mc').
    rewrite <- !app_assoc. split; reflexivity.
Qed.

Lemma ExtT_same keys closed cur ts t : ExtT (Some (keys, closed, cur, ts)) (Some (keys, closed, cur ++ t, ts)).
Proof. cbn [ExtT]. left. repeat split. exists t. reflexivity. Qed.

Lemma ExtT_rot keys closed cur ts cur' ts' :
  ExtT (Some (keys, closed, cur, ts)) (Some (keys ++ [(ts, count ts keys)], closed ++ [cur], cur', ts')).
Proof. cbn [ExtT]. right. exists [], [], []. rewrite app_nil_r. split; reflexivity. Qed.

(* ------------------------------------------------------------------ the directory between two writers *)
(* described as what a writer with an empty buffer holds (TsInvB) *)
Definition dir_ts (c : config) (e lo : Z) (w : world) (d : tview) : Prop :=
  match d with
  | None => names (wfs w) = [] /\ inodes (wfs w) = [] /\ (lo <= wnow w)%Z
  | Some (keys, closed, cur, ts) =>
    exists wr, TsInvB c e lo w wr keys closed ts /\ wpend wr = [] /\ cur_view w wr = cur
  end.

Definition envT (c : config) (e : Z) (x : sys) : Prop :=
  s_tl x = [] /\ wacts (s_w x) = 0 /\ quiet (s_w x) /\ eoff c (s_w x) = e.

(* no writer; n bounds the number of closed files *)
Definition IdleT (c : config) (e lo : Z) (n : nat) (x : sys) (d : tview) : Prop :=
  envT c e x /\ s_flw x = None /\ dir_ts c e lo (s_w x) d /\ length (closedT d) <= n.
(* a writer that has not written yet: it has not looked at the directory *)
Definition PreT (c : config) (e lo : Z) (n : nat) (x : sys) (d : tview) : Prop :=
  envT c e x /\ s_flw x = Some (new_flw c) /\ dir_ts c e lo (s_w x) d /\ S (length (closedT d)) <= n.
(* a writer that has written *)
Definition ActT (c : config) (e lo : Z) (n : nat) (x : sys) (d : tview) : Prop :=
  envT c e x /\
  match d with
  | None => False
  | Some (keys, closed, cur, ts) =>
    exists wr roll, s_flw x = Some (st_ts c ts roll wr) /\ TsInvB c e lo (s_w x) wr keys closed ts
      /\ cur_view (s_w x) wr = cur /\ length closed <= n
  end.

(* ---- the names depend on the file spec only ---- *)
Lemma kname_spec_eq c c' e k : c_spec c = c_spec c' -> kname c e k = kname c' e k.
Proof. unfold kname, nm, fixed0. intros ->. reflexivity. Qed.

Lemma tsinv_spec c c' e lo w wr keys closed ts : c_spec c = c_spec c' -> eoff c' w = e ->
  TsInv c e lo w wr keys closed ts -> wpend wr = [] ->
  TsInv c' e lo w {| wino := wino wr; wpend := []; wcap := c_cap c' |} keys closed ts.
Proof.
  intros E Hoff' [Q W Hnd Hoff Hc Hcp Hlen Hcl Hon Hko Hrg Htsr Hwr Hcap] Hp.
  pose proof (cname_spec_eq c c' E) as En.
  constructor; cbn [wino wpend wcap]; try assumption.
  - rewrite <- En. exact Hc.
  - intros i Hi. rewrite <- (kname_spec_eq c c' e _ E). exact (Hcl i Hi).
  - intros n j L. destruct (Hon n j L) as [->|[i [Hi ->]]]; [left; exact En | right].
    exists i. split; [exact Hi | apply kname_spec_eq; exact E].
  - unfold wr_ok. cbn. destruct (c_cap c'); [lia | reflexivity].
  - reflexivity.
Qed.

Lemma dir_ts_spec c c' e lo w d : c_spec c = c_spec c' -> eoff c' w = e -> dir_ts c e lo w d -> dir_ts c' e lo w d.
Proof.
  intros E Hoff'. destruct d as [[[[keys closed] cur] ts]|]; cbn [dir_ts]; [|tauto].
  intros [wr [[I B] [Hp V]]]. exists {| wino := wino wr; wpend := []; wcap := c_cap c' |}.
  split; [split; [exact (tsinv_spec c c' e lo w wr keys closed ts E Hoff' I Hp) | exact B]|].
  split; [reflexivity|]. unfold cur_view in *. cbn [wino wpend]. rewrite Hp in V. exact V.
Qed.

Lemma eoff_utc c c' w : c_utc c = c_utc c' -> eoff c w = eoff c' w.
Proof. unfold eoff. intros ->. reflexivity. Qed.

Lemma idleT_spec c c' e lo n x d : c_spec c = c_spec c' -> c_utc c = c_utc c' -> IdleT c e lo n x d -> IdleT c' e lo n x d.
Proof.
  intros E U [[Ht [Ha [Q Ho]]] [Es [D Hn]]].
  assert (Ho' : eoff c' (s_w x) = e) by (rewrite <- (eoff_utc c c' _ U); exact Ho).
  split; [repeat split; try assumption; apply Q|]. split; [exact Es|]. split; [exact (dir_ts_spec c c' e lo _ d E Ho' D) | exact Hn].
Qed.

Lemma idleT_mono c e lo n m x d : n <= m -> IdleT c e lo n x d -> IdleT c e lo m x d.
Proof. intros H [A [B [C D]]]. split; [exact A|]. split; [exact B|]. split; [exact C | lia]. Qed.

(* ------------------------------------------------------------------ steps are steps of the synchronous handle *)
Lemma step_sync_cfg c crit x s o : tscfg c crit -> s_flw x = Some s -> f_cfg s = c -> step x o = sync_step x o.
Proof.
  intros [_ [Hts [_ Ha]]] Es <-. exact (RunFacts.step_sync_cfg x o s Es Hts Ha).
Qed.

Lemma eoff_set_now c w t : eoff c (set_now w t) = eoff c w.
Proof. reflexivity. Qed.

Lemma envT_env c e x x' : envT c e x -> s_tl x' = [] -> same_env (s_w x) (s_w x') -> envT c e x'.
Proof.
  intros [Ht [Ha [Q Ho]]] Ht' S. split; [exact Ht'|]. split; [exact (same_env_acts _ _ S Ha)|]. split; [apply S|].
  rewrite (eoff_same_env c _ _ S). exact Ho.
Qed.

(* ------------------------------------------------------------------ one operation of a writer that has written *)
Lemma s_next_ext w (keys : list key) (closed : list bytes) (cur : bytes) (ts : Z) roll o : basic_op o ->
  let '(keys', closed', cur', ts', _) := s_next w (keys, closed, cur, ts, roll) o in
  ExtT (Some (keys, closed, cur, ts)) (Some (keys', closed', cur', ts'))
  /\ flatT (Some (keys', closed', cur', ts')) = flatT (Some (keys, closed, cur, ts)) ++ written [o]
  /\ length closed' <= S (length closed).
Proof.
  intros Hb.
  assert (Same : ExtT (Some (keys, closed, cur, ts)) (Some (keys, closed, cur, ts))
            /\ flatT (Some (keys, closed, cur, ts)) = flatT (Some (keys, closed, cur, ts)) ++ [] /\ length closed <= S (length closed)).
  { split; [apply ExtT_refl|]. split; [rewrite app_nil_r; reflexivity | lia]. }
  assert (Rot : forall b ts', ExtT (Some (keys, closed, cur, ts)) (Some (keys ++ [(ts, count ts keys)], closed ++ [cur], b, ts'))
            /\ flatT (Some (keys ++ [(ts, count ts keys)], closed ++ [cur], b, ts')) = flatT (Some (keys, closed, cur, ts)) ++ b
            /\ length (closed ++ [cur]) <= S (length closed)).
  { intros b ts'. split; [apply ExtT_rot|]. cbn [flatT]. rewrite concat_app, app_length. cbn [concat length]. rewrite app_nil_r.
    split; [reflexivity | lia]. }
  assert (Wr : forall b, let '(keys', closed', cur', ts', _) := s_next w (keys, closed, cur, ts, roll) (OWrite b) in
            ExtT (Some (keys, closed, cur, ts)) (Some (keys', closed', cur', ts'))
            /\ flatT (Some (keys', closed', cur', ts')) = flatT (Some (keys, closed, cur, ts)) ++ b ++ []
            /\ length closed' <= S (length closed)).
  { intros b. cbn [s_next]. rewrite app_nil_r. destruct (rotation_necessary w roll); [exact (Rot b (wnow w))|].
    split; [apply ExtT_same|]. split; [cbn [flatT]; rewrite app_assoc; reflexivity | lia]. }
  destruct o; try contradiction.
  - exact (Wr b).
  - exact (Wr b).
  - exact Same.
  - exact (Rot [] (wnow w)).
  - exact Same.
  - exact Same.
Qed.

Lemma act_step c crit e lo hi n x D o :
  tscfg c crit -> tag_ok c -> years_ok e lo hi -> ActT c e lo n x (Some D) -> basic_op o -> tick_ok o ->
  (wnow (s_w x) <= hi)%Z -> (N.of_nat n <= usize_max)%N ->
  exists D', ActT c e lo (S n) (fst (step x o)) (Some D') /\ ExtT (Some D) (Some D')
    /\ flatT (Some D') = flatT (Some D) ++ written [o]
    /\ wnow (s_w (fst (step x o))) = (wnow (s_w x) + dt_of o)%Z.
Proof.
  intros Hcfg T Y A Hb Htk Hhi Hmax. destruct D as [[[keys closed] cur] ts].
  destruct A as [[Ht [Ha [Q Ho]]] [wr [roll [Es [I [V Hn]]]]]].
  assert (A : ActS c e lo (st_ts c ts roll wr) (s_w x) (keys, closed, cur, ts, roll)).
  { exists wr. split; [reflexivity|]. split; [exact I | exact V]. }
  destruct (act_step_ts c crit e lo hi x _ keys closed cur ts roll o Hcfg T Y Es A Ht Hb Htk Hhi ltac:(lia))
    as [x' [s' [E [Es' [A' [Ht' [N' [O' Ac']]]]]]]]. rewrite E. cbn [fst].
  pose proof (s_next_ext (s_w x) keys closed cur ts roll o Hb) as D.
  destruct (s_next (s_w x) (keys, closed, cur, ts, roll) o) as [[[[keys' closed'] cur'] ts'] roll'].
  destruct D as [X [F Hl]]. destruct A' as [wr' [-> [I' V']]].
  exists (keys', closed', cur', ts'). split; [|split; [exact X|]; split; [exact F | exact N']].
  pose proof (proj1 I') as J.
  split.
  { split; [exact Ht'|]. split; [rewrite Ac'; exact Ha|]. split; [exact (ti_quiet _ _ _ _ _ _ _ _ J) | exact (ti_off _ _ _ _ _ _ _ _ J)]. }
  exists wr', roll'. split; [exact Es'|]. split; [exact I'|]. split; [exact V' | lia].
Qed.

(* ------------------------------------------------------------------ the first write of a writer *)
Lemma first_write_ts c crit e lo hi n x d b :
  tscfg c crit -> tag_ok c -> years_ok e lo hi -> PreT c e lo n x d ->
  (wnow (s_w x) <= hi)%Z -> (N.of_nat n <= usize_max)%N ->
  exists w' s' rot D', write_buffer (new_flw c) (s_w x) b = (Ok tt, w', s', rot)
    /\ ActT c e lo (S n) {| s_flw := Some s'; s_w := w'; s_tl := []; s_dead := s_dead x |} (Some D')
    /\ ExtT d (Some D') /\ flatT (Some D') = flatT d ++ b /\ wnow w' = wnow (s_w x).
Proof.
  intros Hcfg T Y [E0 [Es [D Hn]]] Hhi Hmax. pose proof E0 as [Ht [Ha [Q Ho]]].
  (* what initialize makes of the directory *)
  assert (IN : exists w1 wr1 roll1 keys1 closed1 ts1,
            initialize c (s_w x) = (Ok (Active (Some (mk_rs (NSTs ts1 (Some cur_infix) std_fmt) roll1)) wr1 (cname c)), w1)
            /\ TsInvB c e lo w1 wr1 keys1 closed1 ts1 /\ same_env (s_w x) w1
            /\ ExtT d (Some (keys1, closed1, cur_view w1 wr1, ts1))
            /\ flatT (Some (keys1, closed1, cur_view w1 wr1, ts1)) = flatT d
            /\ length closed1 <= n).
  { destruct d as [[[[keys closed] cur] ts]|]; cbn [dir_ts closedT] in D, Hn.
    - destruct D as [wr [I [Hp V]]].
      destruct (initialize_view_ts c crit e lo hi (s_w x) wr keys closed ts Hcfg T Y I Hp Hhi ltac:(lia))
        as [w1 [wr1 [keys1 [closed1 [ts1 [Ei [I1 [S1 V1]]]]]]]].
      exists w1, wr1, (roll_of crit (N.of_nat (length (cur_view w1 wr1))) ts1), keys1, closed1, ts1. split; [exact Ei|]. split; [exact I1|]. split; [exact S1|].
      rewrite V in V1. destruct (c_append c); injection V1 as -> -> -> ->.
      + split; [apply ExtT_refl|]. split; [reflexivity | lia].
      + split; [apply ExtT_rot|]. split; [|rewrite app_length; cbn [length]; lia].
        cbn [flatT]. rewrite concat_app. cbn [concat]. rewrite !app_nil_r. reflexivity.
    - destruct D as [Hnm [Hin Hlo]].
      destruct (initialize_ts_empty c crit e lo (s_w x) Hcfg Q Hnm Hin Ho Hlo) as [w1 [wr1 [Ei [I1 [V1 S1]]]]].
      exists w1, wr1, (roll_of crit 0 (wnow (s_w x))), [], [], (wnow (s_w x)). split; [exact Ei|]. split; [exact I1|]. split; [exact S1|].
      split; [exact Logic.I|]. split; [rewrite V1; reflexivity | cbn [length]; lia]. }
  destruct IN as [w1 [wr1 [roll1 [keys1 [closed1 [ts1 [Ei [I1 [S1 [X1 [F1 L1]]]]]]]]]]].
  assert (Hhi1 : (wnow w1 <= hi)%Z) by (rewrite (same_env_now _ _ S1); exact Hhi).
  assert (A1 : ActS c e lo (st_ts c ts1 roll1 wr1) w1 (keys1, closed1, cur_view w1 wr1, ts1, roll1)).
  { exists wr1. split; [reflexivity|]. split; [exact I1 | reflexivity]. }
  destruct (act_write_ts c crit e lo hi _ w1 keys1 closed1 _ ts1 roll1 b Hcfg T Y A1 Hhi1 ltac:(lia)) as [w' [s' [E [S' A']]]].
  pose proof (s_next_ext w1 keys1 closed1 (cur_view w1 wr1) ts1 roll1 (OWrite b) Logic.I) as D1.
  destruct (s_next w1 (keys1, closed1, cur_view w1 wr1, ts1, roll1) (OWrite b)) as [[[[keys' closed'] cur'] ts'] roll'].
  destruct D1 as [X2 [F2 Hl]]. destruct A' as [wr' [-> [I' V']]].
  eexists w', _, (rotation_necessary w1 roll1), (keys', closed', cur', ts').
  split. { rewrite (write_buffer_init c (s_w x) b _ _ _ w1 Ei). exact E. }
  assert (S2 : same_env (s_w x) w') by (eapply same_env_trans; eassumption).
  split; [|split; [exact (ExtT_trans _ _ _ X1 X2)|split; [|exact (same_env_now _ _ S2)]]].
  - split; [apply (envT_env c e x _ E0); [reflexivity | exact S2]|].
    exists wr', roll'. cbn [s_flw s_w]. split; [reflexivity|]. split; [exact I'|]. split; [exact V' | lia].
  - rewrite F2, F1. cbn [written]. rewrite app_nil_r. reflexivity.
Qed.

(* ------------------------------------------------------------------ one run *)
(* the state of a run: None as long as nothing has been written (the directory is still d0) *)
Definition GRelT (c : config) (e lo : Z) (n : nat) (x : sys) (d0 a : tview) : Prop :=
  match a with None => PreT c e lo n x d0 | Some _ => ActT c e lo n x a end.
Definition gviewT (d0 a : tview) : tview := match a with None => d0 | Some _ => a end.

Lemma dir_ts_tick c e lo w d dt : (0 <= dt)%Z -> dir_ts c e lo w d -> dir_ts c e lo (set_now w (wnow w + dt)%Z) d.
Proof.
  intros Hdt. destruct d as [[[[keys closed] cur] ts]|]; cbn [dir_ts].
  - intros [wr [I [Hp V]]]. exists wr. split; [apply tsinvb_tick; assumption|]. split; [exact Hp | exact V].
  - intros [A [B C]]. repeat split; try assumption. cbn [set_now wnow]. lia.
Qed.

Lemma gstep_ts c crit e lo hi n x d0 a o :
  tscfg c crit -> tag_ok c -> years_ok e lo hi -> GRelT c e lo n x d0 a -> basic_op o -> tick_ok o ->
  (wnow (s_w x) <= hi)%Z -> (N.of_nat n <= usize_max)%N ->
  exists a', GRelT c e lo (S n) (fst (step x o)) d0 a' /\ ExtT (gviewT d0 a) (gviewT d0 a')
    /\ flatT (gviewT d0 a') = flatT (gviewT d0 a) ++ written [o]
    /\ wnow (s_w (fst (step x o))) = (wnow (s_w x) + dt_of o)%Z.
Proof.
  intros Hcfg T Y G Hb Htk Hhi Hmax. destruct a as [D|].
  - cbn [GRelT gviewT] in *. destruct (act_step c crit e lo hi n x D o Hcfg T Y G Hb Htk Hhi Hmax) as [D' [A' [X' [F' W']]]].
    exists (Some D'). cbn [GRelT gviewT]. auto.
  - cbn [GRelT gviewT] in *. pose proof G as [[Ht [Ha [Q Ho]]] [Es [D Hn]]].
    rewrite (step_sync_cfg c crit x _ o Hcfg Es eq_refl).
    destruct o; try contradiction; cbn [sync_step dt_of written].
    + (* OWrite *)
      destruct (first_write_ts c crit e lo hi n x d0 (s_tl x ++ b) Hcfg T Y G Hhi Hmax) as [w' [s' [rot [D' [E [A' [X' [F' W']]]]]]]].
      rewrite Es. cbn [new_flw f_poisoned]. fold (new_flw c). rewrite E. cbn [fst s_w].
      rewrite Ht in F'. cbn [app] in F'.
      exists (Some D'). cbn [GRelT gviewT]. rewrite app_nil_r. split; [exact A'|]. split; [exact X'|]. split; [exact F' | lia].
    + (* OPlain *)
      destruct (first_write_ts c crit e lo hi n x d0 b Hcfg T Y G Hhi Hmax) as [w' [s' [rot [D' [E [A' [X' [F' W']]]]]]]].
      rewrite Es. cbn [new_flw f_poisoned]. fold (new_flw c). rewrite E. cbn [fst s_w]. rewrite Ht.
      exists (Some D'). cbn [GRelT gviewT]. rewrite app_nil_r. split; [exact A'|]. split; [exact X'|]. split; [exact F' | lia].
    + (* OFlush *)
      rewrite Es. cbn [new_flw f_poisoned flush_state f_inner fst s_w]. exists None. cbn [GRelT gviewT].
      split; [|split; [apply ExtT_refl|]; split; [rewrite app_nil_r; reflexivity | lia]].
      split; [repeat split; try assumption; apply Q|]. split; [reflexivity|]. split; [exact D | lia].
    + (* OTrigger *)
      rewrite Es. cbn [new_flw f_poisoned f_cfg f_inner mount_next with_inner code_of fst s_w]. exists None. cbn [GRelT gviewT].
      split; [|split; [apply ExtT_refl|]; split; [rewrite app_nil_r; reflexivity | lia]].
      split; [repeat split; try assumption; apply Q|]. split; [reflexivity|]. split; [exact D | lia].
    + (* OTick *)
      cbn [fst s_w set_now wnow tick_ok] in *. exists None. cbn [GRelT gviewT].
      split; [|split; [apply ExtT_refl|]; split; [rewrite app_nil_r; reflexivity | reflexivity]].
      split; [repeat split; try assumption; apply Q|]. split; [exact Es|]. split; [apply dir_ts_tick; assumption | lia].
    + (* OSnap *)
      cbn [fst]. exists None. cbn [GRelT gviewT].
      split; [|split; [apply ExtT_refl|]; split; [rewrite app_nil_r; reflexivity | lia]].
      split; [repeat split; try assumption; apply Q|]. split; [exact Es|]. split; [exact D | lia].
Qed.

Lemma grun_ts c crit e lo hi d0 : tscfg c crit -> tag_ok c -> years_ok e lo hi ->
  forall ops x a n, GRelT c e lo n x d0 a -> Forall basic_op ops -> Forall tick_ok ops ->
  (wnow (s_w x) + elapsed ops <= hi)%Z -> (N.of_nat (n + length ops) <= usize_max)%N ->
  exists a', GRelT c e lo (n + length ops) (fst (run x ops)) d0 a' /\ ExtT (gviewT d0 a) (gviewT d0 a')
    /\ flatT (gviewT d0 a') = flatT (gviewT d0 a) ++ written ops
    /\ wnow (s_w (fst (run x ops))) = (wnow (s_w x) + elapsed ops)%Z.
Proof.
  intros Hcfg T Y. induction ops as [|o r IH]; intros x a n G Hb Htk Hhi Hmax.
  - cbn [run fst length elapsed written]. rewrite Nat.add_0_r, app_nil_r. exists a.
    split; [exact G|]. split; [apply ExtT_refl|]. split; [reflexivity | lia].
  - cbn [run]. inversion Hb as [|o' r' Ho Hr]; subst. inversion Htk as [|o' r' Hto Htr]; subst.
    cbn [elapsed length] in *. pose proof (elapsed_nonneg r Htr) as Er.
    assert (Hdt : (0 <= dt_of o)%Z) by (destruct o; cbn [dt_of tick_ok] in *; lia).
    destruct (gstep_ts c crit e lo hi n x d0 a o Hcfg T Y G Ho Hto ltac:(lia) ltac:(lia)) as [a1 [G1 [X1 [F1 W1]]]].
    destruct (step x o) as [x1 ob]. cbn [fst] in *.
    destruct (IH x1 a1 (S n) G1 Hr Htr ltac:(lia) ltac:(lia)) as [a2 [G2 [X2 [F2 W2]]]].
    destruct (run x1 r) as [x2 obs]. cbn [fst] in *.
    exists a2. replace (n + S (length r)) with (S n + length r) by lia.
    split; [exact G2|]. split; [exact (ExtT_trans _ _ _ X1 X2)|].
    split; [rewrite F2, F1, (written_cons o r), app_assoc; reflexivity | lia].
Qed.

(* ---- start, stop, the clock between two runs ---- *)
Lemma start_ts c e lo n x d : IdleT c e lo n x d -> PreT c e lo (S n) (fst (step x (OStart c))) d.
Proof.
  intros [[Ht [Ha [Q Ho]]] [Es [D Hn]]]. rewrite (step_sync_none x _ Es). cbn [sync_step fst].
  split; [repeat split; try assumption; apply Q|]. split; [reflexivity|]. split; [exact D | lia].
Qed.

Lemma start_now x c : wnow (s_w (fst (step x (OStart c)))) = wnow (s_w x).
Proof.
  unfold step, apply_start. cbn [names_computed andb]. destruct (s_flw x) as [s|] eqn:Es.
  - unfold step_core. rewrite Es. destruct (is_async s); reflexivity.
  - unfold step_core. rewrite Es. reflexivity.
Qed.

Lemma idle_tick c e lo n x d dt : (0 <= dt)%Z -> IdleT c e lo n x d ->
  IdleT c e lo n (fst (step x (OTick dt))) d /\ wnow (s_w (fst (step x (OTick dt)))) = (wnow (s_w x) + dt)%Z.
Proof.
  intros Hdt [[Ht [Ha [Q Ho]]] [Es [D Hn]]]. rewrite (step_sync_none x _ Es). cbn [sync_step fst s_w set_now wnow].
  split; [|reflexivity].
  split; [repeat split; try assumption; apply Q|]. split; [exact Es|]. split; [apply dir_ts_tick; assumption | exact Hn].
Qed.

Lemma stop_ts c crit e lo n x d0 a : tscfg c crit -> GRelT c e lo n x d0 a ->
  IdleT c e lo n (fst (step x OStop)) (gviewT d0 a) /\ wnow (s_w (fst (step x OStop))) = wnow (s_w x).
Proof.
  intros Hcfg G. destruct a as [[[[keys closed] cur] ts]|]; cbn [GRelT gviewT] in *.
  - destruct G as [E0 [wr [roll [Es [I [V Hn]]]]]]. pose proof E0 as [Ht [Ha [Q Ho]]].
    rewrite (step_sync_cfg c crit x _ OStop Hcfg Es eq_refl). cbn [sync_step]. rewrite Es. unfold st_ts. cbn [f_poisoned].
    rewrite drop_state_quiet by exact Q. cbn [fst s_w].
    destruct (tsinvb_flushed c e lo (s_w x) wr keys closed ts I) as [I1 V1].
    pose proof (flushed_env (s_w x) wr Q) as SE.
    split; [|exact (same_env_now _ _ SE)].
    split; [apply (envT_env c e x _ E0); [exact Ht | exact SE]|].
    split; [reflexivity|]. cbn [s_w dir_ts closedT]. split; [|exact Hn].
    exists (emptied wr). split; [exact I1|]. split; [reflexivity|]. rewrite V1. exact V.
  - destruct G as [[Ht [Ha [Q Ho]]] [Es [D Hn]]].
    rewrite (step_sync_cfg c crit x _ OStop Hcfg Es eq_refl). cbn [sync_step].
    rewrite Es. cbn [new_flw f_poisoned drop_state shutdown_state f_inner fst s_w]. split; [|reflexivity].
    split; [repeat split; try assumption; apply Q|]. split; [reflexivity|]. split; [exact D | lia].
Qed.

Lemma elapsed_app a b : elapsed (a ++ b) = (elapsed a + elapsed b)%Z.
Proof. induction a as [|o r IH]; cbn [app elapsed]; [reflexivity | rewrite IH; lia]. Qed.

Lemma fst_run_app a b x : fst (run x (a ++ b)) = fst (run (fst (run x a)) b).
Proof. rewrite run_app. destruct (run x a) as [x1 o1]. cbn [fst]. destruct (run x1 b) as [x2 o2]. reflexivity. Qed.

(* ---- one whole run, after the clock has advanced by dt ---- *)
Definition run_t (dt : Z) (c : config) (ops : list op) : list op := OTick dt :: OStart c :: ops ++ [OStop].

Lemma one_run_t c crit e lo hi n x d dt ops :
  tscfg c crit -> tag_ok c -> years_ok e lo hi -> IdleT c e lo n x d -> (0 <= dt)%Z ->
  Forall basic_op ops -> Forall tick_ok ops ->
  (wnow (s_w x) + elapsed (run_t dt c ops) <= hi)%Z -> (N.of_nat (n + length (run_t dt c ops)) <= usize_max)%N ->
  exists d', IdleT c e lo (n + length (run_t dt c ops)) (fst (run x (run_t dt c ops))) d'
    /\ ExtT d d' /\ flatT d' = flatT d ++ written ops
    /\ wnow (s_w (fst (run x (run_t dt c ops)))) = (wnow (s_w x) + elapsed (run_t dt c ops))%Z.
Proof.
  intros Hcfg T Y Id Hdt Hb Htk Hhi Hmax. unfold run_t in *.
  cbn [elapsed dt_of length] in Hhi, Hmax. rewrite elapsed_app in Hhi. rewrite app_length in Hmax. cbn [elapsed dt_of length] in Hhi, Hmax.
  pose proof (elapsed_nonneg ops Htk) as Eo.
  cbn [run].
  destruct (idle_tick c e lo n x d dt Hdt Id) as [Id0 W0]. destruct (step x (OTick dt)) as [xa oba]. cbn [fst] in Id0, W0.
  pose proof (start_ts c e lo n xa d Id0) as P0. pose proof (start_now xa c) as W1.
  destruct (step xa (OStart c)) as [x0 ob0]. cbn [fst] in P0, W1.
  assert (G0 : GRelT c e lo (S n) x0 d None) by exact P0.
  destruct (grun_ts c crit e lo hi d Hcfg T Y ops x0 None (S n) G0 Hb Htk ltac:(lia) ltac:(lia)) as [a1 [G1 [X1 [F1 W2]]]].
  pose proof (fst_run_app ops [OStop] x0) as RA.
  destruct (run x0 (ops ++ [OStop])) as [x2 obs2]. cbn [fst] in RA |- *.
  destruct (run x0 ops) as [x1 obs1]. cbn [fst] in RA, G1, W2.
  destruct (stop_ts c crit e lo (S n + length ops) x1 d a1 Hcfg G1) as [Id2 W3].
  cbn [run] in RA. destruct (step x1 OStop) as [x2' ob2]. cbn [fst] in RA, Id2, W3. subst x2'.
  exists (gviewT d a1). cbn [gviewT] in X1, F1.
  split; [apply (idleT_mono c e lo (S n + length ops)); [cbn [length]; rewrite app_length; cbn [length]; lia | exact Id2]|].
  split; [exact X1|]. split; [exact F1|].
  cbn [elapsed dt_of]. rewrite elapsed_app. cbn [elapsed dt_of]. lia.
Qed.

(* ------------------------------------------------------------------ sequences of runs *)
(* a history: before each run the clock advances by dt >= 0 *)
Definition trun := (Z * config * list op)%type.
Fixpoint runs_ops_t (rs : list trun) : list op :=
  match rs with [] => [] | (dt, c, ops) :: r => run_t dt c ops ++ runs_ops_t r end.
Fixpoint runs_written_t (rs : list trun) : bytes :=
  match rs with [] => [] | (_, _, ops) :: r => written ops ++ runs_written_t r end.

Lemma runs_ops_t_app a b : runs_ops_t (a ++ b) = runs_ops_t a ++ runs_ops_t b.
Proof. induction a as [|[[dt c] ops] r IH]; [reflexivity|]. cbn [app runs_ops_t]. rewrite IH, app_assoc. reflexivity. Qed.
Lemma runs_written_t_app a b : runs_written_t (a ++ b) = runs_written_t a ++ runs_written_t b.
Proof. induction a as [|[[dt c] ops] r IH]; [reflexivity|]. cbn [app runs_written_t]. rewrite IH, app_assoc. reflexivity. Qed.

(* every run: the same file spec, the same choice of use_utc; its own criterion, buffer capacity and append flag *)
Definition run_ok_ts (sp : file_spec) (utc : bool) (r : trun) : Prop :=
  let '(dt, c, ops) := r in
  (0 <= dt)%Z /\ c_spec c = sp /\ c_utc c = utc /\ (exists crit, tscfg c crit) /\ tag_ok c
  /\ Forall basic_op ops /\ Forall tick_ok ops.

Lemma run_ok_ts_elim sp utc dt c ops : run_ok_ts sp utc (dt, c, ops) ->
  (0 <= dt)%Z /\ c_spec c = sp /\ c_utc c = utc /\ (exists crit, tscfg c crit) /\ tag_ok c
  /\ Forall basic_op ops /\ Forall tick_ok ops.
Proof. exact (fun H => H). Qed.

Lemma run_ok_ts_elim_rev sp utc dt c ops :
  (0 <= dt)%Z /\ c_spec c = sp /\ c_utc c = utc /\ (exists crit, tscfg c crit) /\ tag_ok c
  /\ Forall basic_op ops /\ Forall tick_ok ops -> run_ok_ts sp utc (dt, c, ops).
Proof. exact (fun H => H). Qed.

Lemma runs_elapsed_nonneg sp utc rs : Forall (run_ok_ts sp utc) rs -> (0 <= elapsed (runs_ops_t rs))%Z.
Proof.
  induction 1 as [|[[dt c] ops] r Hok _ IH]; cbn [runs_ops_t elapsed]; [lia|].
  apply run_ok_ts_elim in Hok. destruct Hok as [Hdt [_ [_ [_ [_ [_ Htk]]]]]].
  rewrite elapsed_app. unfold run_t. cbn [elapsed dt_of]. rewrite elapsed_app. cbn [elapsed dt_of].
  pose proof (elapsed_nonneg ops Htk). lia.
Qed.

Lemma runs_rel_t sp utc e lo hi : years_ok e lo hi ->
  forall rs x d c0 n, c_spec c0 = sp -> c_utc c0 = utc -> Forall (run_ok_ts sp utc) rs -> IdleT c0 e lo n x d ->
  (wnow (s_w x) + elapsed (runs_ops_t rs) <= hi)%Z -> (N.of_nat (n + length (runs_ops_t rs)) <= usize_max)%N ->
  exists d', IdleT c0 e lo (n + length (runs_ops_t rs)) (fst (run x (runs_ops_t rs))) d'
    /\ ExtT d d' /\ flatT d' = flatT d ++ runs_written_t rs
    /\ wnow (s_w (fst (run x (runs_ops_t rs)))) = (wnow (s_w x) + elapsed (runs_ops_t rs))%Z.
Proof.
  intros Y. induction rs as [|[[dt c] ops] r IH]; intros x d c0 n Ec0 Eu0 Hrs Id Hhi Hmax.
  - cbn [runs_ops_t runs_written_t run fst length elapsed]. rewrite Nat.add_0_r, app_nil_r. exists d.
    split; [exact Id|]. split; [apply ExtT_refl|]. split; [reflexivity | lia].
  - inversion Hrs as [|r0 r' Hok Hr]; subst. apply run_ok_ts_elim in Hok.
    destruct Hok as [Hdt [Ec [Eu [[crit Hcfg] [T [Hb Htk]]]]]].
    cbn [runs_ops_t runs_written_t] in *. rewrite elapsed_app in Hhi. rewrite app_length in Hmax.
    pose proof (runs_elapsed_nonneg _ _ r Hr) as Er.
    assert (Id' : IdleT c e lo n x d) by (apply (idleT_spec c0 c); congruence).
    destruct (one_run_t c crit e lo hi n x d dt ops Hcfg T Y Id' Hdt Hb Htk ltac:(lia) ltac:(lia)) as [d1 [Id1 [X1 [F1 W1]]]].
    rewrite fst_run_app. set (x1 := fst (run x (run_t dt c ops))) in *.
    assert (Id1' : IdleT c0 e lo (n + length (run_t dt c ops)) x1 d1) by (apply (idleT_spec c c0); congruence).
    destruct (IH x1 d1 c0 (n + length (run_t dt c ops)) eq_refl eq_refl Hr Id1' ltac:(lia) ltac:(lia)) as [d2 [Id2 [X2 [F2 W2]]]].
    exists d2. rewrite app_length, elapsed_app, Nat.add_assoc.
    split; [exact Id2|]. split; [exact (ExtT_trans _ _ _ X1 X2)|].
    split; [rewrite F2, F1, app_assoc; reflexivity | lia].
Qed.

Lemma idleT0 c t0 off : IdleT c (ts_e c off) t0 0 (sys0 t0 off) None.
Proof. cbn. repeat split; cbn; lia. Qed.

(* ------------------------------------------------------------------ what the reader finds between two writers *)
Lemma ts_view_spec c c' e f keys closed cur : c_spec c = c_spec c' -> ts_view c e f keys closed cur -> ts_view c' e f keys closed cur.
Proof.
  intros E [Hlen [Hcl [Hcur [Hon Hnd]]]]. pose proof (cname_spec_eq c c' E) as En. unfold ts_view. rewrite <- En.
  split; [exact Hlen|]. split; [|split; [exact Hcur|split; [|exact Hnd]]].
  - intros i Hi. rewrite <- (kname_spec_eq c c' e _ E). exact (Hcl i Hi).
  - intros n j L. destruct (Hon n j L) as [->|[i [Hi ->]]]; [left; reflexivity | right].
    exists i. split; [exact Hi | apply kname_spec_eq; exact E].
Qed.

Lemma idleT_view sp c0 e lo n x keys closed cur ts : c_spec c0 = sp -> IdleT c0 e lo n x (Some (keys, closed, cur, ts)) ->
  (forall c, c_spec c = sp ->
     ts_view c e (wfs (s_w x)) keys closed cur
     /\ exists j, lookup (wfs (s_w x)) (cname c) = Some j /\ fborn (inode (wfs (s_w x)) j) = ts)
  /\ keys_ok keys /\ (forall k, In k keys -> (lo <= fst k <= ts)%Z) /\ (lo <= ts <= wnow (s_w x))%Z.
Proof.
  intros E0 [_ [_ [[wr [[I B] [Hp V]]] _]]].
  pose proof I as [Q W Hnd Hoff Hc Hcp Hlen Hcl Hon Hko Hrg Htsr Hwr Hcap].
  split; [|split; [exact Hko | split; [exact Hrg | exact Htsr]]].
  intros c Ec. assert (E : c_spec c0 = c_spec c) by congruence. split.
  - apply (ts_view_spec c0 c e _ _ _ _ E). split; [exact Hlen|]. split.
    { intros i Hi. destruct (Hcl i Hi) as [j [Lj [Pj [Cj _]]]]. eauto. }
    split; [|split; [exact Hon | exact Hnd]].
    exists (wino wr). split; [exact Hc|]. split; [exact Hcp|]. unfold cur_view in V. rewrite Hp, app_nil_r in V. exact V.
  - exists (wino wr). rewrite <- (cname_spec_eq c0 c E). split; [exact Hc | exact B].
Qed.

Lemma idleT_none c0 e lo n x : IdleT c0 e lo n x None -> names (wfs (s_w x)) = [].
Proof. intros [_ [_ [[H _] _]]]. exact H. Qed.

Definition sp_config_utc (sp : file_spec) (utc : bool) : config :=
  {| c_spec := sp; c_append := false; c_cap := None; c_rot := None; c_utc := utc; c_symlink := false;
     c_bg := false; c_async := false; c_start := None |}.

(* Any number of runs on the same directory, starting from the empty one; before each run the clock may advance (and it may
   advance within the runs); each run has its own criterion, buffer capacity and append flag; all runs have the same file
   spec and the same choice of use_utc.  e is the offset that enters the time-stamp texts.

   After the whole history the directory is empty (nothing was ever written), or it consists exactly of the closed files
   named by keys (second of creation, position) - in the order of their closing - and rCURRENT;
   - their contents, in this order, are exactly the bytes written in all runs, in the order of the writing;
   - keys_ok keys: over the WHOLE history the keys are pairwise distinct and strictly increasing in the order of closing
     (keys_ok_order, ts_names_distinct in TsTheorems.v): no file name is used twice, across runs too. *)
Theorem timestamps_restarts sp utc t0 off rs :
  Forall (run_ok_ts sp utc) rs ->
  let e := if utc then 0%Z else off in
  (0 <= t0 + e)%Z -> (t0 + elapsed (runs_ops_t rs) + e < sec_max)%Z -> (N.of_nat (length (runs_ops_t rs)) <= usize_max)%N ->
  let f := wfs (s_w (fst (run (sys0 t0 off) (runs_ops_t rs)))) in
  (names f = [] /\ runs_written_t rs = [])
  \/ exists keys closed cur,
       (forall c, c_spec c = sp -> ts_view c e f keys closed cur)
       /\ concat closed ++ cur = runs_written_t rs
       /\ keys_ok keys
       /\ (forall k, In k keys -> (t0 <= fst k <= t0 + elapsed (runs_ops_t rs))%Z).
Proof.
  intros Hrs e Hlo Hhi Hmax f.
  assert (Y : years_ok e t0 (t0 + elapsed (runs_ops_t rs))) by (split; assumption).
  pose proof (idleT0 (sp_config_utc sp utc) t0 off) as Id0. change (ts_e (sp_config_utc sp utc) off) with e in Id0.
  destruct (runs_rel_t sp utc e t0 _ Y rs (sys0 t0 off) None (sp_config_utc sp utc) 0 eq_refl eq_refl Hrs Id0
              ltac:(cbn [sys0 s_w world0 wnow]; lia) ltac:(cbn [Nat.add]; exact Hmax)) as [d' [Id [_ [F W]]]].
  cbn [flatT app] in F. cbn [sys0 s_w world0 wnow] in W. fold f in Id.
  destruct d' as [[[[keys closed] cur] ts]|].
  - right. destruct (idleT_view sp (sp_config_utc sp utc) e t0 _ _ keys closed cur ts eq_refl Id) as [V [K [Rg Rt]]].
    exists keys, closed, cur. split; [intros c Ec; exact (proj1 (V c Ec))|]. split; [exact F|]. split; [exact K|].
    intros k Ik. specialize (Rg k Ik). lia.
  - left. split; [exact (idleT_none _ _ _ _ _ Id) | symmetry; exact F].
Qed.
Print Assumptions timestamps_restarts.

(* Later runs never change a closed file and never reuse a name: after rs1 the directory shows (keys1, closed1, cur1), and ts1
   is the birth second of rCURRENT - not earlier than the second of any closed file; after the further runs rs2 it shows
   (keys2, closed2, cur2), where either nothing was closed (the same keys and closed files; rCURRENT was continued), or every
   closed file of before is there under its key with its content, the former rCURRENT - possibly continued first, by an
   appending run - is closed under the key of ITS OWN creation second ts1, the next position of that second, and more files
   follow. *)
Theorem timestamps_restarts_keep sp utc t0 off rs1 rs2 :
  Forall (run_ok_ts sp utc) (rs1 ++ rs2) ->
  let e := if utc then 0%Z else off in
  (0 <= t0 + e)%Z -> (t0 + elapsed (runs_ops_t (rs1 ++ rs2)) + e < sec_max)%Z ->
  (N.of_nat (length (runs_ops_t (rs1 ++ rs2))) <= usize_max)%N ->
  let f1 := wfs (s_w (fst (run (sys0 t0 off) (runs_ops_t rs1)))) in
  let f2 := wfs (s_w (fst (run (sys0 t0 off) (runs_ops_t (rs1 ++ rs2))))) in
  (names f1 = [] /\ runs_written_t rs1 = [])
  \/ exists keys1 closed1 cur1 ts1 keys2 closed2 cur2,
       (forall c, c_spec c = sp ->
          ts_view c e f1 keys1 closed1 cur1 /\ exists j, lookup f1 (cname c) = Some j /\ fborn (inode f1 j) = ts1)
       /\ concat closed1 ++ cur1 = runs_written_t rs1
       /\ (forall k, In k keys1 -> (fst k <= ts1)%Z)
       /\ (forall c, c_spec c = sp -> ts_view c e f2 keys2 closed2 cur2)
       /\ concat closed2 ++ cur2 = runs_written_t (rs1 ++ rs2)
       /\ keys_ok keys2
       /\ ((keys2 = keys1 /\ closed2 = closed1 /\ exists t, cur2 = cur1 ++ t)
           \/ exists t mk mc, keys2 = keys1 ++ (ts1, count ts1 keys1) :: mk /\ closed2 = closed1 ++ (cur1 ++ t) :: mc).
Proof.
  intros Hrs e Hlo Hhi Hmax f1 f2. apply Forall_app in Hrs. destruct Hrs as [Hrs1 Hrs2].
  pose proof (runs_elapsed_nonneg sp utc) as EN.
  unfold f2. rewrite runs_ops_t_app in *. rewrite elapsed_app in Hhi. rewrite app_length in Hmax.
  pose proof (EN rs1 Hrs1) as E1. pose proof (EN rs2 Hrs2) as E2.
  set (hi := (t0 + (elapsed (runs_ops_t rs1) + elapsed (runs_ops_t rs2)))%Z).
  assert (Y : years_ok e t0 hi) by (split; assumption).
  pose proof (idleT0 (sp_config_utc sp utc) t0 off) as Id0. change (ts_e (sp_config_utc sp utc) off) with e in Id0.
  destruct (runs_rel_t sp utc e t0 hi Y rs1 (sys0 t0 off) None (sp_config_utc sp utc) 0 eq_refl eq_refl Hrs1 Id0
              ltac:(cbn [sys0 s_w world0 wnow]; unfold hi; lia) ltac:(cbn [Nat.add]; lia)) as [d1 [Id1 [_ [F1 W1]]]].
  cbn [flatT app] in F1. cbn [sys0 s_w world0 wnow] in W1. cbn [Nat.add] in Id1.
  rewrite fst_run_app. set (x1 := fst (run (sys0 t0 off) (runs_ops_t rs1))) in *.
  destruct (runs_rel_t sp utc e t0 hi Y rs2 x1 d1 (sp_config_utc sp utc) _ eq_refl eq_refl Hrs2 Id1
              ltac:(unfold hi; lia) ltac:(lia)) as [d2 [Id2 [X2 [F2 W2]]]].
  destruct d1 as [[[[keys1 closed1] cur1] ts1]|].
  - right. destruct d2 as [[[[keys2 closed2] cur2] ts2]|]; [|destruct X2].
    destruct (idleT_view sp (sp_config_utc sp utc) e t0 _ _ keys1 closed1 cur1 ts1 eq_refl Id1) as [V1 [K1 [Rg1 Rt1]]].
    destruct (idleT_view sp (sp_config_utc sp utc) e t0 _ _ keys2 closed2 cur2 ts2 eq_refl Id2) as [V2 [K2 [Rg2 Rt2]]].
    exists keys1, closed1, cur1, ts1, keys2, closed2, cur2.
    split; [exact V1|]. split; [exact F1|]. split; [intros k Ik; specialize (Rg1 k Ik); lia|].
    split; [intros c Ec; exact (proj1 (V2 c Ec))|]. split; [rewrite runs_written_t_app, <- F1; exact F2|]. split; [exact K2|].
    cbn [ExtT] in X2. destruct X2 as [[-> [-> [_ Ht]]]|H]; [left; auto | right; exact H].
  - left. split; [exact (idleT_none _ _ _ _ _ Id1) | symmetry; exact F1].
Qed.
Print Assumptions timestamps_restarts_keep.

(* no name twice, none is rCURRENT's: spelled out for the names *)
Theorem timestamps_restarts_names sp utc t0 off rs :
  Forall (run_ok_ts sp utc) rs ->
  let e := if utc then 0%Z else off in
  (0 <= t0 + e)%Z -> (t0 + elapsed (runs_ops_t rs) + e < sec_max)%Z -> (N.of_nat (length (runs_ops_t rs)) <= usize_max)%N ->
  let f := wfs (s_w (fst (run (sys0 t0 off) (runs_ops_t rs)))) in
  (names f = [] /\ runs_written_t rs = [])
  \/ exists keys closed cur,
       (forall c, c_spec c = sp -> ts_view c e f keys closed cur)
       /\ concat closed ++ cur = runs_written_t rs
       /\ (forall i j, i < j < length keys ->
             let a := nth i keys kd in let b := nth j keys kd in (fst a < fst b)%Z \/ (fst a = fst b /\ snd a < snd b))
       /\ (forall c, c_spec c = sp ->
             (forall i j, i < length keys -> j < length keys -> kname c e (nth i keys kd) = kname c e (nth j keys kd) -> i = j)
             /\ (forall i, i < length keys -> kname c e (nth i keys kd) <> cname c)).
Proof.
  intros Hrs e Hlo Hhi Hmax f.
  destruct (timestamps_restarts sp utc t0 off rs Hrs Hlo Hhi Hmax) as [H|[keys [closed [cur [V [F [K Rg]]]]]]]; [left; exact H | right].
  exists keys, closed, cur. split; [exact V|]. split; [exact F|]. split; [exact (proj1 (keys_ok_order keys K))|].
  intros c _. apply (ts_names_distinct c e t0 (t0 + elapsed (runs_ops_t rs)) keys K); [split; assumption | exact Rg].
Qed.
Print Assumptions timestamps_restarts_names.

(* ------------------------------------------------------------------ a run without a write changes nothing *)
(* the writer looks at the directory at its first write only (lazy initialisation) *)
Definition no_write_op (o : op) : Prop := match o with OFlush | OTrigger | OTick _ | OSnap => True | _ => False end.

Lemma run_without_write_ts c crit x ops : tscfg c crit -> s_flw x = None -> Forall no_write_op ops ->
  wfs (s_w (fst (run x (OStart c :: ops ++ [OStop])))) = wfs (s_w x).
Proof.
  intros Hcfg Es Hops. cbn [run]. rewrite (step_sync_none x _ Es). cbn [sync_step].
  set (x0 := {| s_flw := Some (new_flw c); s_w := s_w x; s_tl := s_tl x; s_dead := false |}).
  assert (G : forall l y, Forall no_write_op l -> s_flw y = Some (new_flw c) ->
            s_flw (fst (run y l)) = Some (new_flw c) /\ wfs (s_w (fst (run y l))) = wfs (s_w y)).
  { induction l as [|o r IH]; intros y Hl Ey; [split; [exact Ey | reflexivity]|].
    inversion Hl as [|o' r' Ho Hr]; subst. cbn [run].
    assert (S1 : s_flw (fst (step y o)) = Some (new_flw c) /\ wfs (s_w (fst (step y o))) = wfs (s_w y)).
    { rewrite (step_sync_cfg c crit y _ o Hcfg Ey eq_refl).
      destruct o; try contradiction; cbn [sync_step]; rewrite ?Ey; cbn [new_flw f_poisoned flush_state f_inner f_cfg mount_next with_inner fst s_flw s_w];
        split; reflexivity || exact Ey. }
    destruct (step y o) as [y1 ob]. cbn [fst] in S1. destruct S1 as [E1 F1].
    destruct (IH y1 Hr E1) as [E2 F2]. destruct (run y1 r) as [y2 obs]. cbn [fst] in *. split; [exact E2 | congruence]. }
  destruct (G ops x0 Hops eq_refl) as [E1 F1].
  pose proof (fst_run_app ops [OStop] x0) as RA. destruct (run x0 (ops ++ [OStop])) as [x2 obs2]. cbn [fst] in RA |- *. rewrite RA.
  set (x1 := fst (run x0 ops)) in *. cbn [run].
  rewrite (step_sync_cfg c crit x1 _ OStop Hcfg E1 eq_refl). cbn [sync_step]. rewrite E1.
  cbn [new_flw f_poisoned drop_state shutdown_state f_inner fst s_w]. exact F1.
Qed.

(* ------------------------------------------------------------------ the same for histories without a tick between the runs *)
(* runs_ops / runs_written of NumRestart.v: the clock advances within the runs only (a tick at the beginning of a run, before
   its first write, has the same effect as one between the runs) *)
Definition timed0 (rs : list (config * list op)) : list trun := List.map (fun r => (0%Z, fst r, snd r)) rs.

Lemma step_tick0 x : fst (step x (OTick 0)) = x.
Proof.
  unfold step, apply_start. destruct (s_flw x) as [s|] eqn:Es; cbn [names_computed andb]; unfold step_core; rewrite Es.
  - destruct (is_async s); cbn [async_step sync_step fst]; destruct x as [fl w tl dd]; destruct w; cbn; rewrite Z.add_0_r; reflexivity.
  - cbn [sync_step fst]. destruct x as [fl w tl dd]; destruct w; cbn; rewrite Z.add_0_r; reflexivity.
Qed.

Lemma runs_ops_timed0 rs : forall x, fst (run x (runs_ops_t (timed0 rs))) = fst (run x (runs_ops rs)).
Proof.
  induction rs as [|[c ops] r IH]; intros x; [reflexivity|].
  cbn [timed0 List.map runs_ops_t fst snd]. fold (timed0 r). rewrite runs_ops_cons. unfold run_t.
  change (OTick 0 :: OStart c :: ops ++ [OStop]) with ([OTick 0] ++ (OStart c :: ops ++ [OStop])).
  rewrite <- app_assoc, (fst_run_app [OTick 0]).
  assert (E : fst (run x [OTick 0]) = x).
  { cbn [run]. pose proof (step_tick0 x) as H. destruct (step x (OTick 0)) as [x1 ob]. exact H. }
  rewrite E, !fst_run_app. apply IH.
Qed.

Lemma runs_written_timed0 rs : runs_written_t (timed0 rs) = runs_written rs.
Proof. induction rs as [|[c ops] r IH]; [reflexivity|]. cbn [timed0 List.map runs_written_t runs_written fst snd]. fold (timed0 r). rewrite IH. reflexivity. Qed.

Lemma runs_elapsed_timed0 rs : elapsed (runs_ops_t (timed0 rs)) = elapsed (runs_ops rs).
Proof.
  induction rs as [|[c ops] r IH]; [reflexivity|]. cbn [timed0 List.map runs_ops_t fst snd]. fold (timed0 r).
  rewrite runs_ops_cons, !elapsed_app, IH. unfold run_t. cbn [elapsed dt_of]. lia.
Qed.

Lemma runs_length_timed0 rs : length (runs_ops_t (timed0 rs)) = length (runs_ops rs) + length rs.
Proof.
  induction rs as [|[c ops] r IH]; [reflexivity|]. cbn [timed0 List.map runs_ops_t fst snd]. fold (timed0 r).
  rewrite runs_ops_cons, !app_length, IH. unfold run_t. cbn [length]. lia.
Qed.

Definition run_ok_ts0 (sp : file_spec) (utc : bool) (r : config * list op) : Prop :=
  c_spec (fst r) = sp /\ c_utc (fst r) = utc /\ (exists crit, tscfg (fst r) crit) /\ tag_ok (fst r)
  /\ Forall basic_op (snd r) /\ Forall tick_ok (snd r).

Corollary timestamps_restarts_untimed sp utc t0 off rs :
  Forall (run_ok_ts0 sp utc) rs ->
  let e := if utc then 0%Z else off in
  (0 <= t0 + e)%Z -> (t0 + elapsed (runs_ops rs) + e < sec_max)%Z -> (N.of_nat (length (runs_ops rs) + length rs) <= usize_max)%N ->
  let f := wfs (s_w (fst (run (sys0 t0 off) (runs_ops rs)))) in
  (names f = [] /\ runs_written rs = [])
  \/ exists keys closed cur,
       (forall c, c_spec c = sp -> ts_view c e f keys closed cur)
       /\ concat closed ++ cur = runs_written rs
       /\ keys_ok keys
       /\ (forall k, In k keys -> (t0 <= fst k <= t0 + elapsed (runs_ops rs))%Z).
Proof.
  intros Hrs e Hlo Hhi Hmax. rewrite <- runs_ops_timed0, <- runs_written_timed0, <- runs_elapsed_timed0.
  apply (timestamps_restarts sp utc t0 off (timed0 rs)).
  - unfold timed0. apply Forall_map. eapply Forall_impl; [|exact Hrs]. intros [c ops] H. cbn [fst snd] in *.
    split; [lia | exact H].
  - exact Hlo.
  - rewrite runs_elapsed_timed0. exact Hhi.
  - rewrite runs_length_timed0. exact Hmax.
Qed.
Print Assumptions timestamps_restarts_untimed.

(* ------------------------------------------------------------------ examples *)
Open Scope string_scope.
Definition rs_sp : file_spec := ex_sp "log".

(* five runs.  (1) without append, three files in second 0: a | b | c (current).  (2) with append, started in the same
   second: "c" is continued ("cd"), the clock advances, a rotation closes it under the second of ITS creation - the third name
   of second 0 -, "e" is born in second 1.  (3) without append, started in second 1: "e" is closed at the start under the first
   name of second 1, "f" and "g" follow in the same second.  (4) two seconds later, a writer that does not write (it flushes and
   even triggers a rotation): nothing changes.  (5) without append, in second 3: "g" - born in second 1 - is closed under the
   third name of second 1. *)
Definition rs_ex : list trun :=
  [ (0%Z, ext_cfg rs_sp false (CSize 100) None false, [OWrite (bs "a"); OTrigger; OWrite (bs "b"); OTrigger; OWrite (bs "c")]);
    (0%Z, ext_cfg rs_sp true (CSize 100) (Some 4%nat) false, [OWrite (bs "d"); OTick 1; OTrigger; OWrite (bs "e")]);
    (0%Z, ext_cfg rs_sp false (CAge ADay) None false, [OWrite (bs "f"); OTrigger; OWrite (bs "g")]);
    (2%Z, ext_cfg rs_sp false (CSize 1) None false, [OSnap; OFlush; OTrigger]);
    (0%Z, ext_cfg rs_sp false (CSize 1) (Some 2%nat) false, [OPlain (bs "h")]) ].

Example ts_restarts_dir :
  snap_of (fst (run (sys0 0 0) (runs_ops_t rs_ex)))
  = [ (bs "app_r1970-01-01_00-00-00.log", 0%N, bs "a");
      (bs "app_r1970-01-01_00-00-00.restart-0000.log", 0%N, bs "b");
      (bs "app_r1970-01-01_00-00-00.restart-0001.log", 0%N, bs "cd");
      (bs "app_r1970-01-01_00-00-01.log", 0%N, bs "e");
      (bs "app_r1970-01-01_00-00-01.restart-0000.log", 0%N, bs "f");
      (bs "app_r1970-01-01_00-00-01.restart-0001.log", 0%N, bs "g");
      (bs "app_rCURRENT.log", 0%N, bs "h") ]
  /\ runs_written_t rs_ex = bs "abcdefgh".
Proof. split; vm_compute; reflexivity. Qed.

(* the directory after the first three runs: the fourth run leaves it as it is *)
Example ts_restarts_dir3 :
  snap_of (fst (run (sys0 0 0) (runs_ops_t (firstn 3 rs_ex))))
  = [ (bs "app_r1970-01-01_00-00-00.log", 0%N, bs "a");
      (bs "app_r1970-01-01_00-00-00.restart-0000.log", 0%N, bs "b");
      (bs "app_r1970-01-01_00-00-00.restart-0001.log", 0%N, bs "cd");
      (bs "app_r1970-01-01_00-00-01.log", 0%N, bs "e");
      (bs "app_r1970-01-01_00-00-01.restart-0000.log", 0%N, bs "f");
      (bs "app_rCURRENT.log", 0%N, bs "g") ]
  /\ snap_of (fst (run (sys0 0 0) (runs_ops_t (firstn 4 rs_ex)))) = snap_of (fst (run (sys0 0 0) (runs_ops_t (firstn 3 rs_ex)))).
Proof. split; vm_compute; reflexivity. Qed.

(* the hypotheses of the theorems can be met *)
Lemma ext_cfg_tag_ok app crit cap utc : tag_ok (ext_cfg rs_sp app crit cap utc).
Proof. apply tag_free_ok. split; vm_compute; reflexivity. Qed.

Lemma rs_ex_ok : Forall (run_ok_ts rs_sp false) rs_ex.
Proof.
  unfold rs_ex.
  repeat (apply Forall_cons;
          [apply run_ok_ts_elim_rev; split; [lia|]; split; [reflexivity|]; split; [reflexivity|];
           split; [eexists; apply ext_cfg_ok; reflexivity|]; split; [apply ext_cfg_tag_ok|];
           split; [repeat constructor | repeat (apply Forall_cons; [cbn [tick_ok]; first [exact Logic.I | lia]|]); apply Forall_nil]|]).
  apply Forall_nil.
Qed.

Example ts_restarts_instance :
  exists keys closed cur,
    (forall c, c_spec c = rs_sp -> ts_view c 0 (wfs (s_w (fst (run (sys0 0 0) (runs_ops_t rs_ex))))) keys closed cur)
    /\ concat closed ++ cur = bs "abcdefgh" /\ keys_ok keys /\ (forall k, In k keys -> (0 <= fst k <= 3)%Z).
Proof.
  destruct (timestamps_restarts rs_sp false 0 0 rs_ex rs_ex_ok) as [[_ H]|H];
    [change (0 <= 0)%Z; lia | change (3 + 0 < sec_max)%Z; unfold sec_max; lia | vm_compute; discriminate | discriminate H | exact H].
Qed.

(* the keys of this history: seconds never decrease in the order of closing, positions count from 0 within each second *)
Example ts_restarts_keys :
  List.map (infix_of 0) [(0%Z, 0); (0%Z, 1); (0%Z, 2); (1%Z, 0); (1%Z, 1); (1%Z, 2)]
  = [ bs "r1970-01-01_00-00-00"; bs "r1970-01-01_00-00-00.restart-0000"; bs "r1970-01-01_00-00-00.restart-0001";
      bs "r1970-01-01_00-00-01"; bs "r1970-01-01_00-00-01.restart-0000"; bs "r1970-01-01_00-00-01.restart-0001" ].
Proof. vm_compute. reflexivity. Qed.

Example ts_restarts_keep_instance :
  exists keys1 closed1 cur1 ts1 keys2 closed2 cur2,
    (forall c, c_spec c = rs_sp ->
       ts_view c 0 (wfs (s_w (fst (run (sys0 0 0) (runs_ops_t (firstn 2 rs_ex)))))) keys1 closed1 cur1)
    /\ concat closed1 ++ cur1 = bs "abcde"
    /\ (forall c, c_spec c = rs_sp -> ts_view c 0 (wfs (s_w (fst (run (sys0 0 0) (runs_ops_t rs_ex))))) keys2 closed2 cur2)
    /\ concat closed2 ++ cur2 = bs "abcdefgh"
    /\ ((keys2 = keys1 /\ closed2 = closed1 /\ exists t, cur2 = cur1 ++ t)
        \/ exists t mk mc, keys2 = keys1 ++ (ts1, count ts1 keys1) :: mk /\ closed2 = closed1 ++ (cur1 ++ t) :: mc).
Proof.
  pose proof rs_ex_ok as Hok. change rs_ex with (firstn 2 rs_ex ++ skipn 2 rs_ex) in Hok |- *.
  destruct (timestamps_restarts_keep rs_sp false 0 0 (firstn 2 rs_ex) (skipn 2 rs_ex) Hok)
    as [[_ H]|[keys1 [closed1 [cur1 [ts1 [keys2 [closed2 [cur2 [V1 [F1 [_ [V2 [F2 [_ X]]]]]]]]]]]]]];
    [change (0 <= 0)%Z; lia | change (3 + 0 < sec_max)%Z; unfold sec_max; lia | vm_compute; discriminate | discriminate H |].
  exists keys1, closed1, cur1, ts1, keys2, closed2, cur2.
  split; [intros c Ec; exact (proj1 (V1 c Ec))|]. split; [exact F1|]. split; [exact V2|]. split; [exact F2 | exact X].
Qed.

(* ------------------------------------------------------------------ the hypothesis "the same use_utc in all runs" is needed *)
(* zone offset one hour.  The first writer names its files by local time: "a", born and closed in second 0, is
   <01:00:00>.  The second writer, an hour later, uses UTC: it closes "b" - born in second 0 - as <00:00:00>, and "c" - born in
   second 3600 - collides with the local name of the first run and becomes <01:00:00>.restart-0000.  Nothing is lost and no
   name is used twice, but a reader that goes by the names gets b, a, c, d. *)
Definition utc_ex : list trun :=
  [ (0%Z, ext_cfg rs_sp false (CSize 100) None false, [OWrite (bs "a"); OTrigger; OWrite (bs "b")]);
    (3600%Z, ext_cfg rs_sp false (CSize 100) None true, [OWrite (bs "c"); OTrigger; OWrite (bs "d")]) ].
Example use_utc_changed_between_runs :
  snap_of (fst (run (sys0 0 3600) (runs_ops_t utc_ex)))
  = [ (bs "app_r1970-01-01_00-00-00.log", 0%N, bs "b");
      (bs "app_r1970-01-01_01-00-00.log", 0%N, bs "a");
      (bs "app_r1970-01-01_01-00-00.restart-0000.log", 0%N, bs "c");
      (bs "app_rCURRENT.log", 0%N, bs "d") ]
  /\ runs_written_t utc_ex = bs "abcd".
Proof. split; vm_compute; reflexivity. Qed.

Print Assumptions timestamps_restarts.
Print Assumptions timestamps_restarts_keep.
