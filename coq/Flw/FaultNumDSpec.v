(* C19 with rotation, NumbersDirect naming (r00000, r00001, ...; no rCURRENT): the executable SPECIFICATION of what a
   FileLogWriter with NumbersDirect naming, size criterion, direct mode (no buffer), no cleanup, synchronous, makes of
   a list of records when the file-system calls fail as an arbitrary fault oracle says; and what the specification
   implies.  The refinement proof (the model `run` does exactly this) is in FaultNumD.v.

   What the model (and the code) does, read off write_buffer / mount_next / initialize:

   (iii) a failing step of the INITIALISATION (the listing read_dir, the open/create of r00000, the metadata call
         [append]): initialize returns Err, write_buffer returns Err BEFORE anything is written, the record is LOST,
         the handle reports EWrite, the state stays `Initial`: the next record initialises again from the beginning
         (lists again).  With append, an r00000 that was created before the failing metadata call stays (empty) and is
         continued later.
   (i)   a rotation renames nothing: the naming state is advanced FIRST (index + 1), then r<index+1> is opened.  When
         that OPEN/CREATE fails, mount_next returns Err, the naming state STAYS ADVANCED, the writer is still the old one
         on its old file; write_buffer reports ELogFile and WRITES THE RECORD WITH THE OLD WRITER into the (over-full)
         old file.  Nothing is lost, the state is not poisoned, there is always a file.  The size counter still exceeds
         the limit, so the NEXT record tries the rotation again - with the index advanced once more: every failed open
         SKIPS A NUMBER (a gap in the numbering; the skipped number is never used).
   (iv)  the WRITE itself fails: write_buffer returns Err, the size counter is not increased, the record is LOST,
         the handle reports EWrite; the writer state is as before.
   Every oracle entry `true` that is consumed yields exactly one reported error (ELogFile: rotation step, record
   kept; EWrite: record lost).  No log call panics or returns an error. *)
Require Import FL.Base.Bytes FL.Base.BytesFacts FL.Fs.Fs FL.Flw.Model FL.Flw.Run FL.Flw.NumRun FL.Flw.FaultFacts
  FL.Flw.FaultRotSpec.
From Coq Require Import ZifyN ZifyNat ZifyBool.
From Coq Require Import Sorted.
Open Scope nat_scope.

(* ------------------------------------------------------------------ the specification *)
(* the abstract state: directory and writer *)
Inductive dst :=
| DInit (created : bool)      (* writer not initialised; the directory is empty / holds an empty r00000 *)
| DAct (cl : list (nat * bytes)) (k s : nat) (d : bytes).
                              (* closed files cl (number, content); the writer writes into r<k>, which holds d; s opens
                                 have failed since r<k> was opened: the naming state is at k + s *)

(* the files of the directory, by number *)
Definition d_files (st : dst) : list (nat * bytes) :=
  match st with DInit created => if created then [(0, [])] else [] | DAct cl k _ d => cl ++ [(k, d)] end.
Definition d_closed (st : dst) : list (nat * bytes) :=
  match st with DInit _ => [] | DAct cl _ _ _ => cl end.
(* what a reader finds: the files in the order of their numbers *)
Definition dstream (st : dst) : bytes := concat (List.map snd (d_files st)).

(* an initialised writer on r<k> *)
Definition d_active (m : N) (cl : list (nat * bytes)) (k s : nat) (d b : bytes) (fl : list bool) : dst * list ecode * list bool :=
  if (m <? N.of_nat (length d))%N then
    let '(f1, fl1) := pop fl in                               (* open/create r<k+s+1> *)
    if f1 then let '(d', e, fl2) := s_write d b fl1 in (DAct cl k (S s) d', ELogFile :: e, fl2)
    else let '(d', e, fl2) := s_write [] b fl1 in (DAct (cl ++ [(k, d)]) (k + s + 1) 0 d', e, fl2)
  else let '(d', e, fl1) := s_write d b fl in (DAct cl k s d', e, fl1).

(* a writer that is not initialised yet *)
Definition d_init (app : bool) (m : N) (created : bool) (b : bytes) (fl : list bool) : dst * list ecode * list bool :=
  let '(f1, fl1) := pop fl in                                 (* read_dir *)
  if f1 then (DInit created, [EWrite], fl1) else
  let '(f3, fl3) := pop fl1 in                                (* open/create r00000 *)
  if f3 then (DInit created, [EWrite], fl3) else
  let '(f4, fl4) := if app then pop fl3 else (false, fl3) in  (* metadata (with append) *)
  if f4 then (DInit true, [EWrite], fl4) else
  d_active m [] 0 0 [] b fl4.

Definition dstep (app : bool) (m : N) (st : dst) (fl : list bool) (b : bytes) : dst * list ecode * list bool :=
  match st with
  | DInit created => d_init app m created b fl
  | DAct cl k s d => d_active m cl k s d b fl
  end.

Fixpoint simd_st (app : bool) (m : N) (st : dst) (fl : list bool) (recs : list bytes) : dst * list ecode * list bool :=
  match recs with
  | [] => (st, [], fl)
  | b :: rest =>
    let '(st1, e1, fl1) := dstep app m st fl b in
    let '(st2, e2, fl2) := simd_st app m st1 fl1 rest in (st2, e1 ++ e2, fl2)
  end.

(* the specification as a function of oracle and records: the files (number, content), the reported errors (with their
   codes), the rest of the oracle *)
Definition simd (app : bool) (m : N) (fl : list bool) (recs : list bytes) : list (nat * bytes) * list ecode * list bool :=
  let '(st, e, fl') := simd_st app m (DInit false) fl recs in (d_files st, e, fl').

(* ------------------------------------------------------------------ one record *)
Lemma dstream_act cl k s d : dstream (DAct cl k s d) = concat (List.map snd cl) ++ d.
Proof. unfold dstream. cbn [d_files]. rewrite map_app, concat_app. cbn [List.map snd concat]. rewrite app_nil_r. reflexivity. Qed.
Lemma dstream_init created : dstream (DInit created) = [].
Proof. destruct created; reflexivity. Qed.

Lemma d_active_ok m cl k s d b fl : stream_step_ok dstream (DAct cl k s d) fl b (d_active m cl k s d b fl).
Proof.
  pose proof (dstream_act cl k s d) as St.
  assert (New : forall d', dstream (DAct (cl ++ [(k, d)]) (k + s + 1) 0 d') = (concat (List.map snd cl) ++ d) ++ d').
  { intros d'. rewrite dstream_act, map_app, concat_app. cbn [List.map snd concat]. rewrite app_nil_r. reflexivity. }
  unfold d_active. destruct (m <? N.of_nat (length d))%N.
  - pose proof (pop_used fl) as C1. destruct (pop fl) as [f1 fl1]. cbn [fst snd] in C1. destruct f1.
    + (* the open fails *)
      pose proof (write_step_ok dstream (DAct cl k s d) fl b fl1 [ELogFile] _ d _ C1 eq_refl St (dstream_act cl k (S s))) as K.
      destruct (s_write d b fl1) as [[d' e] fl2]. exact K.
    + rewrite <- (app_nil_r (concat (List.map snd cl) ++ d)) in St.
      pose proof (write_step_ok dstream (DAct cl k s d) fl b fl1 [] _ [] _ C1 eq_refl St New) as K.
      destruct (s_write [] b fl1) as [[d' e] fl2]. exact K.
  - pose proof (write_step_ok dstream (DAct cl k s d) fl b fl [] _ d _ (acct_refl fl) eq_refl St (dstream_act cl k s)) as K.
    destruct (s_write d b fl) as [[d' e] fl1]. exact K.
Qed.

(* the initialisation fails at one of its calls, or it makes them all and the writer goes on as an initialised one on
   an empty r00000 *)
Lemma d_init_cases app m created b fl :
  (exists cr fl', acct fl fl' 1 /\ (created = true -> cr = true) /\ d_init app m created b fl = (DInit cr, [EWrite], fl'))
  \/ (exists fl', acct fl fl' 0 /\ d_init app m created b fl = d_active m [] 0 0 [] b fl').
Proof.
  unfold d_init.
  pose proof (pop_used fl) as C1. destruct (pop fl) as [f1 fl1]. cbn [fst snd] in C1.
  destruct f1; [left; exists created, fl1; split; [exact C1 | split; [auto | reflexivity]]|].
  pose proof (acct_trans _ _ _ _ _ C1 (pop_used fl1)) as C3. destruct (pop fl1) as [f3 fl3]. cbn [fst snd] in C3.
  destruct f3; [left; exists created, fl3; split; [exact C3 | split; [auto | reflexivity]]|].
  pose proof (acct_trans _ _ _ _ _ C3 (proj1 (pop_if_used app fl3))) as C4.
  destruct (if app then pop fl3 else (false, fl3)) as [f4 fl4]. cbn [fst snd] in C4.
  destruct f4; [left; exists true, fl4; split; [exact C4 | split; [auto | reflexivity]] | right; exists fl4; split; [exact C4 | reflexivity]].
Qed.

Lemma d_init_ok app m created b fl : stream_step_ok dstream (DInit created) fl b (d_init app m created b fl).
Proof.
  destruct (d_init_cases app m created b fl) as [[cr [fl' [[u [U Nu]] [_ ->]]]] | [fl' [A ->]]].
  - exists u. rewrite !dstream_init. cbn. auto.
  - apply (stream_step_prefix dstream (DInit created) (DAct [] 0 0 []) fl fl' b _ A); [rewrite dstream_init; reflexivity|].
    apply d_active_ok.
Qed.

Theorem dstep_ok_all app m st fl b : stream_step_ok dstream st fl b (dstep app m st fl b).
Proof. destruct st as [created|cl k s d]; cbn [dstep]; [apply d_init_ok | apply d_active_ok]. Qed.

Lemma dstep_codes app m st fl b c : In c (snd (fst (dstep app m st fl b))) -> c = EWrite \/ c = ELogFile.
Proof.
  assert (A : forall cl k s d fl0, In c (snd (fst (d_active m cl k s d b fl0))) -> c = EWrite \/ c = ELogFile).
  { intros cl k s d fl0. unfold d_active. destruct (m <? N.of_nat (length d))%N.
    - destruct (pop fl0) as [f1 fl1]. destruct f1.
      + pose proof (s_write_codes d b fl1 c) as X. destruct (s_write d b fl1) as [[d' e] fl2]. cbn [fst snd] in *. intros [<-|H]; auto.
      + pose proof (s_write_codes [] b fl1 c) as X. destruct (s_write [] b fl1) as [[d' e] fl2]. exact X.
    - pose proof (s_write_codes d b fl0 c) as X. destruct (s_write d b fl0) as [[d' e] fl2]. exact X. }
  destruct st as [created|cl k s d]; cbn [dstep]; [|apply A].
  destruct (d_init_cases app m created b fl) as [[cr [fl' [_ [_ ->]]]] | [fl' [_ ->]]]; [cbn; intros [<-|[]]; auto | apply A].
Qed.

(* ------------------------------------------------------------------ whole lists of records *)
(* per record: the record, the reports of its log call, the oracle entries its log call consumed *)
Fixpoint traced (app : bool) (m : N) (st : dst) (fl : list bool) (recs : list bytes) : list entry :=
  match recs with
  | [] => []
  | b :: rest =>
    let '(st1, e1, fl1) := dstep app m st fl b in
    {| t_rec := b; t_errs := e1; t_used := firstn (length fl - length fl1) fl |} :: traced app m st1 fl1 rest
  end.

Definition numd_spec (app : bool) (m : N) : spec :=
  {| sp_adv := fun (c : unit) (_ : bytes) => c; sp_bytes := fun b => b; sp_stream := dstream;
     sp_step := fun _ => dstep app m; sp_sim := fun _ => simd_st app m; sp_trace := fun _ => traced app m;
     sp_sim_nil := fun _ _ _ => eq_refl; sp_sim_cons := fun _ _ _ _ _ => eq_refl;
     sp_trace_nil := fun _ _ _ => eq_refl; sp_trace_cons := fun _ _ _ _ _ => eq_refl;
     sp_step_ok := fun _ => dstep_ok_all app m |}.

Lemma simd_st_app app m : forall recs1 recs2 st fl,
  simd_st app m st fl (recs1 ++ recs2)
  = let '(st1, e1, fl1) := simd_st app m st fl recs1 in
    let '(st2, e2, fl2) := simd_st app m st1 fl1 recs2 in (st2, e1 ++ e2, fl2).
Proof. intros recs1 recs2 st fl. exact (sim_app_gen (numd_spec app m) recs1 recs2 tt st fl). Qed.

(* (2) Only records during whose own log call a failing call was consumed can be missing; the stream (the files in the
   order of their numbers) consists of the other records, in order, each once.  With t the list of log calls (record,
   reports, oracle entries consumed): the consumed entries partition the consumed part of the oracle; the reports are
   those of the calls; the stream is the concatenation of the records that were not lost; a record is lost only if its
   call reported EWrite, and a call reports exactly as many errors as it consumed failing entries - so a record whose
   call consumed only `false` entries is in the stream and nothing is reported for it. *)
Theorem numd_lost_only_around_failures app m fl recs :
  let '(st', e, fl') := simd_st app m (DInit false) fl recs in
  let t := traced app m (DInit false) fl recs in
  List.map t_rec t = recs
  /\ fl = concat (List.map t_used t) ++ fl'
  /\ e = concat (List.map t_errs t)
  /\ dstream st' = concat (List.map t_kept t)
  /\ (forall x, In x t -> length (t_errs x) = ntrue (t_used x))
  /\ (forall x, In x t -> (forall f, In f (t_used x) -> f = false) -> t_errs x = [] /\ t_kept x = t_rec x)
  /\ (forall x, In x t -> t_kept x <> t_rec x -> In true (t_used x) /\ In EWrite (t_errs x)).
Proof.
  pose proof (lost_only_around_failures_gen (numd_spec app m) tt (DInit false) fl recs eq_refl) as T.
  cbn [numd_spec sp_sim sp_trace sp_bytes sp_stream] in T. rewrite map_id in T. exact T.
Qed.

(* (3) the stream is the concatenation of a subsequence of the records (no duplication, no reordering); each missing
   record is one reported EWrite: #missing = #EWrite <= #reported errors (the other reports are ELogFile: a failed
   open at a rotation, the record of that call was kept) *)
Theorem numd_loss_is_reported app m : forall recs st fl,
  let '(st', e, _) := simd_st app m st fl recs in
  exists kept, Subseq kept recs /\ dstream st' = dstream st ++ concat kept
    /\ length recs = length kept + nlost e /\ nlost e <= length e
    /\ (forall c, In c e -> c = EWrite \/ c = ELogFile).
Proof.
  intros recs st fl. pose proof (loss_is_reported_gen (numd_spec app m) recs tt st fl) as T.
  pose proof (sim_errs_gen (numd_spec app m) _ (fun _ => dstep_codes app m) recs tt st fl) as Co.
  cbn [numd_spec sp_sim sp_bytes sp_stream] in T, Co. rewrite map_id in T.
  destruct (simd_st app m st fl recs) as [[st' e] fl']. destruct T as [kept [H1 [H2 [H3 H4]]]].
  exists kept. auto.
Qed.

(* ------------------------------------------------------------------ the numbering, for every oracle *)
Definition d_idx (st : dst) : list nat := List.map fst (d_files st).
(* the number of the file that the next successful rotation (or initialisation) creates *)
Definition d_next (st : dst) : nat :=
  match st with DInit created => if created then 1 else 0 | DAct _ k s _ => k + s + 1 end.
(* the numbers are strictly increasing (so the names are pairwise different), all below d_next *)
Definition d_sorted (st : dst) : Prop := StronglySorted lt (d_idx st) /\ Forall (fun i => i < d_next st) (d_idx st).

Lemma sorted_snoc l k : StronglySorted lt l -> Forall (fun i => i < k) l -> StronglySorted lt (l ++ [k]).
Proof.
  induction l as [|x r IH]; intros S F; cbn [app]; [constructor; constructor|].
  inversion S as [|x' r' Sr Fr]; subst. inversion F as [|x' r' Hx Fr']; subst.
  constructor; [apply IH; assumption|]. apply Forall_app. split; [exact Fr | constructor; [exact Hx | constructor]].
Qed.

Lemma d_idx_act cl k s d : d_idx (DAct cl k s d) = List.map fst cl ++ [k].
Proof. unfold d_idx. cbn [d_files]. rewrite map_app. reflexivity. Qed.

Lemma Forall_lt_mono l a b : a <= b -> Forall (fun i => i < a) l -> Forall (fun i => i < b) l.
Proof. intros H F. eapply Forall_impl; [|exact F]. cbn. intros; lia. Qed.

(* what one step does to the files: closed files stay as they are (number and content), the numbers stay sorted, a new
   file gets the number d_next, a failed open advances d_next by one *)
Definition dfiles_ok (st st' : dst) : Prop :=
  (d_sorted st -> d_sorted st')
  /\ (exists ext, d_closed st' = d_closed st ++ ext)
  /\ d_next st <= d_next st'
  /\ ((d_idx st' = d_idx st /\ d_closed st' = d_closed st) \/ (d_idx st' = d_idx st ++ [d_next st] /\ d_next st' = d_next st + 1)).

Lemma d_active_files m cl k s d b fl : dfiles_ok (DAct cl k s d) (fst (fst (d_active m cl k s d b fl))).
Proof.
  assert (Same : forall s' d', s <= s' -> dfiles_ok (DAct cl k s d) (DAct cl k s' d')).
  { intros s' d' Hs. unfold dfiles_ok, d_sorted. rewrite !d_idx_act. cbn [d_next d_closed].
    split. { intros [S1 F1]. split; [exact S1|]. eapply Forall_lt_mono; [|exact F1]. lia. }
    split; [exists []; rewrite app_nil_r; reflexivity|]. split; [lia|]. left. split; reflexivity. }
  unfold d_active. destruct (m <? N.of_nat (length d))%N.
  - destruct (pop fl) as [f1 fl1]. destruct f1.
    + destruct (s_write d b fl1) as [[d' e] fl2]. cbn [fst]. apply Same. lia.
    + destruct (s_write [] b fl1) as [[d' e] fl2]. cbn [fst].
      unfold dfiles_ok, d_sorted. rewrite !d_idx_act. cbn [d_next d_closed]. rewrite map_app. cbn [List.map fst].
      split. { intros [S1 F1]. split.
               - apply sorted_snoc; [exact S1 | exact F1].
               - apply Forall_app. split; [eapply Forall_lt_mono; [|exact F1]; lia | constructor; [lia | constructor]]. }
      split; [eexists; reflexivity|]. split; [lia|]. right. split; [reflexivity | lia].
  - destruct (s_write d b fl) as [[d' e] fl2]. cbn [fst]. apply Same. lia.
Qed.

Lemma dstep_files app m st fl b : dfiles_ok st (fst (fst (dstep app m st fl b))).
Proof.
  destruct st as [created|cl k s d]; cbn [dstep]; [|apply d_active_files].
  assert (Stay : forall cr : bool, (created = true -> cr = true) -> dfiles_ok (DInit created) (DInit cr)).
  { intros cr H. unfold dfiles_ok, d_sorted, d_idx. cbn [d_files d_next d_closed].
    split. { intros _. destruct cr; cbn; repeat constructor. }
    split; [exists []; reflexivity|].
    destruct created; [rewrite (H eq_refl); split; [lia | left; split; reflexivity]|].
    destruct cr; cbn; [split; [lia | right; split; reflexivity] | split; [lia | left; split; reflexivity]]. }
  assert (Go : forall fl0, dfiles_ok (DInit created) (fst (fst (d_active m [] 0 0 [] b fl0)))).
  { intros fl0. unfold d_active. change (N.of_nat (length (@nil N))) with 0%N.
    assert (E : (m <? 0)%N = false) by (apply N.ltb_ge; apply N.le_0_l). rewrite E.
    destruct (s_write [] b fl0) as [[d' e] fl2]. cbn [fst].
    unfold dfiles_ok, d_sorted, d_idx. cbn [d_files d_next d_closed Datatypes.app List.map fst].
    split. { intros _. split; repeat constructor. }
    split; [exists []; reflexivity|].
    destruct created; [split; [lia | left; split; reflexivity] | split; [lia | right; split; reflexivity]]. }
  unfold d_init. destruct (pop fl) as [f1 fl1]. destruct f1; [apply Stay; auto|].
  destruct (pop fl1) as [f3 fl3]. destruct f3; [apply Stay; auto|].
  destruct (if app then pop fl3 else (false, fl3)) as [f4 fl4]. destruct f4; [apply Stay; auto | apply Go].
Qed.

(* for EVERY oracle: the numbers of the files are strictly increasing - no two files have the same number, a file is never
   opened a second time -, and a file that has been closed keeps its number and content for ever *)
Theorem simd_files app m : forall recs st fl,
  let st' := fst (fst (simd_st app m st fl recs)) in
  (d_sorted st -> d_sorted st') /\ (exists ext, d_closed st' = d_closed st ++ ext) /\ d_next st <= d_next st'.
Proof.
  induction recs as [|b rest IH]; intros st fl; cbn [simd_st].
  - cbn [fst]. split; [auto|]. split; [exists []; rewrite app_nil_r; reflexivity | lia].
  - pose proof (dstep_files app m st fl b) as S. destruct (dstep app m st fl b) as [[st1 e1] fl1]. cbn [fst] in S.
    specialize (IH st1 fl1). destruct (simd_st app m st1 fl1 rest) as [[st2 e2] fl2]. cbn [fst] in *.
    destruct S as [S1 [[x1 S2] [S3 _]]]. destruct IH as [I1 [[x2 I2] I3]].
    split; [auto|]. split; [exists (x1 ++ x2); rewrite I2, S2, app_assoc; reflexivity | lia].
Qed.

Lemma d_sorted_init : d_sorted (DInit false).
Proof. split; constructor. Qed.

(* ------------------------------------------------------------------ (4) recovery *)
(* the view of the fault-free development (NumRun.aview): closed contents and the content of the writer's file *)
Definition daview (st : dst) : aview :=
  match st with DInit _ => None | DAct cl _ _ d => Some (List.map snd cl, d) end.
(* while opens have failed a rotation is pending *)
Definition d_pending (m : N) (st : dst) : Prop :=
  match st with DAct _ _ (S _) d => (m <? N.of_nat (length d))%N = true | _ => True end.

Lemma d_active_pending m cl k s d b fl : d_pending m (DAct cl k s d) -> d_pending m (fst (fst (d_active m cl k s d b fl))).
Proof.
  intros P. unfold d_active.
  destruct (m <? N.of_nat (length d))%N eqn:Em.
  - destruct (pop fl) as [f1 fl1]. destruct f1.
    + pose proof (s_write_pending d b fl1) as L. destruct (s_write d b fl1) as [[d' e] fl2]. cbn [fst d_pending]. lia.
    + destruct (s_write [] b fl1) as [[d' e] fl2]. exact I.
  - pose proof (s_write_pending d b fl) as L. destruct (s_write d b fl) as [[d' e] fl1]. cbn [fst].
    destruct s; cbn [d_pending] in *; [exact I | congruence].
Qed.

Lemma dstep_pending app m st fl b : d_pending m st -> d_pending m (fst (fst (dstep app m st fl b))).
Proof.
  intros P. destruct st as [created|cl k s d]; cbn [dstep]; [|apply d_active_pending; exact P].
  destruct (d_init_cases app m created b fl) as [[cr [fl' [_ [_ ->]]]] | [fl' [_ ->]]]; [exact I|].
  apply d_active_pending. exact I.
Qed.

Lemma simd_st_pending app m : forall recs st fl, d_pending m st -> d_pending m (fst (fst (simd_st app m st fl recs))).
Proof.
  intros recs st fl. exact (sim_inv_gen (numd_spec app m) (d_pending m) (fun _ => dstep_pending app m) recs tt st fl).
Qed.

(* new files are numbered consecutively from d_next on, the old ones keep their numbers *)
Definition d_grows (st st' : dst) : Prop := exists n, d_idx st' = d_idx st ++ seq (d_next st) n /\ d_next st' = d_next st + n.
Lemma d_grows_by n st st' : d_idx st' = d_idx st ++ seq (d_next st) n -> d_next st' = d_next st + n -> d_grows st st'.
Proof. intros H1 H2. exists n. split; assumption. Qed.
Lemma d_grows_trans a b c : d_grows a b -> d_grows b c -> d_grows a c.
Proof.
  intros [n1 [Hi1 Hn1]] [n2 [Hi2 Hn2]]. exists (n1 + n2). rewrite Hi2, Hi1, Hn1, <- app_assoc, seq_app. split; [reflexivity | lia].
Qed.

Lemma d_active_recovered m cl k s d b fl : all_false fl -> d_pending m (DAct cl k s d) ->
  let '(st', e, fl') := d_active m cl k s d b fl in
  e = [] /\ all_false fl' /\ (exists cl' k' d', st' = DAct cl' k' 0 d')
  /\ daview st' = a_step (Some (List.map snd cl, d)) (OWrite b) (m <? N.of_nat (length d))%N
  /\ d_grows (DAct cl k s d) st'.
Proof.
  intros H0 Ho. unfold d_active. cbn [a_step].
  destruct (m <? N.of_nat (length d))%N eqn:Em.
  - destruct (pop_all_false fl H0) as [E1 E2]. destruct (pop fl) as [f1 fl1]. cbn [fst snd] in *. subst f1.
    pose proof (s_write_all_false [] b fl1 E2) as K. destruct (s_write [] b fl1) as [[d' e] fl3]. destruct K as [-> [-> K3]].
    split; [reflexivity|]. split; [exact K3|]. split; [eauto|].
    split. { cbn [daview Datatypes.app]. rewrite map_app. reflexivity. }
    apply (d_grows_by 1); [|cbn [d_next]; lia]. rewrite !d_idx_act, map_app. reflexivity.
  - pose proof (s_write_all_false d b fl H0) as K. destruct (s_write d b fl) as [[d' e] fl1]. destruct K as [-> [-> K3]].
    destruct s; [|cbn [d_pending] in Ho; congruence].
    split; [reflexivity|]. split; [exact K3|]. split; [eauto|]. split; [reflexivity|].
    apply (d_grows_by 0); [|cbn [d_next]; lia]. rewrite !d_idx_act. cbn [seq]. rewrite app_nil_r. reflexivity.
Qed.

(* one record when no more failures come: nothing is reported, the record is appended, a pending rotation is carried
   out, the state is that of the fault-free size rule, a new file gets the number d_next *)
Lemma dstep_recovered app m st fl b : all_false fl -> d_pending m st ->
  let '(st', e, fl') := dstep app m st fl b in
  e = [] /\ all_false fl' /\ (exists cl k d, st' = DAct cl k 0 d)
  /\ daview st' = a_step (daview st) (OWrite b) (m <? N.of_nat (length (cur_of (daview st))))%N
  /\ d_grows st st'.
Proof.
  intros Hf P. destruct st as [created|cl k s d]; cbn [dstep daview cur_of]; [|apply d_active_recovered; assumption].
  destruct (d_init_cases app m created b fl) as [[cr [fl' [A _]]] | [fl' [A ->]]];
    destruct (acct_all_false _ _ _ A Hf) as [E0 Hf']; [discriminate E0|].
  (* the first record of a fresh writer never rotates *)
  unfold d_active. change (N.of_nat (length (@nil N))) with 0%N.
  assert (E : (m <? 0)%N = false) by (apply N.ltb_ge; apply N.le_0_l). rewrite E.
  pose proof (s_write_all_false [] b fl' Hf') as K. destruct (s_write [] b fl') as [[d' e] fl5]. destruct K as [-> [-> K3]].
  split; [reflexivity|]. split; [exact K3|]. split; [eauto|]. split; [reflexivity|].
  destruct created; [apply (d_grows_by 0) | apply (d_grows_by 1)]; reflexivity.
Qed.

(* (4) Once no more failures come (the rest of the oracle is empty or all `false`), nothing more is reported, every
   further record is in the stream, and rotation works again: the contents develop exactly by the fault-free size rule
   NumRun.s_run (rotate before a record iff the file holds more than m bytes), starting with the rotation that is still
   pending if opens have failed; the new files are numbered consecutively from d_next on - the number after the
   last one that was tried -, the old files keep their numbers: no file is opened twice *)
Theorem numd_recovery_spec app m : forall recs st fl, all_false fl -> d_pending m st ->
  let '(st', e, fl') := simd_st app m st fl recs in
  e = [] /\ all_false fl' /\ dstream st' = dstream st ++ concat recs
  /\ daview st' = s_run m (daview st) (List.map OWrite recs)
  /\ (exists n, d_idx st' = d_idx st ++ seq (d_next st) n /\ d_next st' = d_next st + n)
  /\ (recs <> [] -> exists cl k d, st' = DAct cl k 0 d).
Proof.
  intros recs st fl Hf P.
  pose proof (recovery_spec_gen (numd_spec app m) (d_pending m) (fun st => exists cl k d, st = DAct cl k 0 d)
                (fun _ st b st' => daview st' = a_step (daview st) (OWrite b) (m <? N.of_nat (length (cur_of (daview st))))%N
                                   /\ d_grows st st')
                (fun _ st recs st' => daview st' = s_run m (daview st) (List.map OWrite recs) /\ d_grows st st')) as R.
  cbn [numd_spec sp_sim sp_step sp_adv sp_bytes sp_stream sp_st sp_ctx sp_rec] in R.
  assert (Pg : forall st0, (exists cl k d, st0 = DAct cl k 0 d) -> d_pending m st0) by (intros st0 [cl [k [d ->]]]; exact I).
  specialize (R Pg (fun _ st0 => conj eq_refl (d_grows_by 0 st0 st0 (eq_sym (app_nil_r _)) (eq_sym (Nat.add_0_r _))))
                (fun _ st0 b st1 rest st2 '(conj V1 G1) '(conj V2 G2) => conj (s_run_view_cons m _ _ _ b rest V1 V2) (d_grows_trans _ _ _ G1 G2))
                (fun _ => dstep_recovered app m) recs tt st fl Hf P).
  rewrite map_id in R. destruct (simd_st app m st fl recs) as [[st' e] fl'].
  destruct R as [R1 [R2 [R3 [[R4 R5] R6]]]]. auto 6.
Qed.

Theorem numd_recovery app m fl recs1 recs2 :
  let '(st1, e1, fl1) := simd_st app m (DInit false) fl recs1 in
  all_false fl1 ->
  let '(st2, e2, fl2) := simd_st app m (DInit false) fl (recs1 ++ recs2) in
  e2 = e1 /\ dstream st2 = dstream st1 ++ concat recs2
  /\ daview st2 = s_run m (daview st1) (List.map OWrite recs2)
  /\ (exists n, d_idx st2 = d_idx st1 ++ seq (d_next st1) n)
  /\ StronglySorted lt (d_idx st2)
  /\ (exists ext, d_closed st2 = d_closed st1 ++ ext)
  /\ (recs2 <> [] -> exists cl k d, st2 = DAct cl k 0 d).
Proof.
  rewrite simd_st_app.
  pose proof (simd_st_pending app m recs1 (DInit false) fl I) as P.
  pose proof (simd_files app m recs1 (DInit false) fl) as F1.
  destruct (simd_st app m (DInit false) fl recs1) as [[st1 e1] fl1]. cbn [fst] in P, F1. intros Hf.
  pose proof (numd_recovery_spec app m recs2 st1 fl1 Hf P) as R.
  pose proof (simd_files app m recs2 st1 fl1) as F2.
  destruct (simd_st app m st1 fl1 recs2) as [[st2 e2] fl2]. cbn [fst] in F2.
  destruct R as [-> [_ [Hs [Hv [[n [Hi _]] Hc]]]]].
  rewrite app_nil_r. destruct F1 as [S1 _]. destruct F2 as [S2 [X2 _]].
  split; [reflexivity|]. split; [exact Hs|]. split; [exact Hv|]. split; [eauto|].
  split; [apply S2, S1, d_sorted_init|]. split; [exact X2 | exact Hc].
Qed.

(* without failures: the fault-free size rule from the start, the files are numbered 0, 1, 2, ... *)
Corollary no_faults_numd app m recs :
  let '(st, e, _) := simd_st app m (DInit false) [] recs in
  e = [] /\ dstream st = concat recs /\ daview st = s_run m None (List.map OWrite recs)
  /\ d_idx st = seq 0 (length (d_idx st)).
Proof.
  assert (Hf : all_false []) by (intros f []).
  pose proof (numd_recovery_spec app m recs (DInit false) [] Hf I) as R.
  destruct (simd_st app m (DInit false) [] recs) as [[st e] fl']. destruct R as [-> [_ [Hs [Hv [[n [Hi _]] _]]]]].
  split; [reflexivity|]. split; [exact Hs|]. split; [exact Hv|].
  cbn in Hi. rewrite Hi, seq_length. reflexivity.
Qed.

Print Assumptions numd_lost_only_around_failures.
Print Assumptions numd_loss_is_reported.
Print Assumptions simd_files.
Print Assumptions numd_recovery.
