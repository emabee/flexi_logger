(* Timestamps naming: the stream theorem (C01) for whole runs from an empty directory (timestamps_stream;
   timestamps_stream_pairs with a list of (infix, content) pairs, dir_exactly); what keys_ok says about the names
   (keys_ok_order, ts_names_distinct; one second, pairwise different seconds, no clock tick); examples (ext_cfg, ext_c,
   ext_ops, used by later files), among them ".restart-" in the configured name parts, and the examples that show that
   tag_ok and tick_ok are needed. *)
Require Import FL.Base.Bytes FL.Base.BytesFacts FL.Base.PathName FL.Fs.Fs FL.Fs.FsFacts FL.Time.Civil FL.Time.TsFormat
  FL.Names.FileSpec FL.Names.NamesFacts FL.Names.SortFacts FL.Flw.Model FL.Flw.ModelFacts FL.Flw.NumFs FL.Flw.NumInv FL.Flw.Run
  FL.Flw.NumRun FL.Oracles.O_Flw FL.Flw.NumTheorems FL.Flw.NumListing FL.Flw.NumRestart
  FL.Flw.TsCal FL.Flw.TsTime FL.Flw.TsNames FL.Flw.TsInv FL.Flw.TsRun.
Open Scope nat_scope.

(* the offset that enters the time-stamp texts of a run that starts with zone offset off *)
Definition ts_e (c : config) (off : Z) : Z := if c_utc c then 0%Z else off.

Lemma start_rel_ts c t0 off : RelT c (ts_e c off) t0 0 (fst (step (sys0 t0 off) (OStart c))) None.
Proof. cbn. repeat split. cbn. lia. Qed.

(* C01 for Timestamps naming: any criterion, buffer capacity, append flag, use_utc.
   After the writer is stopped the directory consists exactly of the closed files - named by their keys, in the order of
   their closing - and rCURRENT; their contents, in this order, are exactly the bytes written; the keys are those of
   keys_ok: seconds non-decreasing, within one second <ts>, <ts>.restart-0000, <ts>.restart-0001, ... *)
Theorem timestamps_stream c crit t0 off ops :
  tscfg c crit -> tag_ok c -> Forall basic_op ops -> Forall tick_ok ops ->
  (0 <= t0 + ts_e c off)%Z -> (t0 + elapsed ops + ts_e c off < sec_max)%Z -> (N.of_nat (length ops) <= usize_max)%N ->
  let f := wfs (s_w (fst (run (sys0 t0 off) (OStart c :: ops ++ [OStop])))) in
  (names f = [] /\ written ops = [])
  \/ exists keys closed cur,
       ts_view c (ts_e c off) f keys closed cur
       /\ concat closed ++ cur = written ops
       /\ keys_ok keys
       /\ (forall k, In k keys -> (t0 <= fst k <= t0 + elapsed ops)%Z).
Proof.
  intros Hcfg T Hb Htk Hlo Hhi Hmax. cbn [run]. destruct (step (sys0 t0 off) (OStart c)) as [x0 ob0] eqn:E0.
  pose proof (start_rel_ts c t0 off) as R0. rewrite E0 in R0. cbn [fst] in R0.
  assert (W0 : wnow (s_w x0) = t0) by (cbn in E0; injection E0 as <- _; reflexivity).
  assert (Y : years_ok (ts_e c off) t0 (t0 + elapsed ops)) by (split; assumption).
  rewrite run_app.
  pose proof (run_rel_ts c crit _ _ _ Hcfg T Y ops x0 None 0 R0 Hb Htk ltac:(lia) ltac:(cbn [Nat.add]; exact Hmax)) as [R1 W1].
  pose proof (run_length ops x0) as L.
  destruct (run x0 ops) as [x1 obs1]. cbn [fst snd] in *.
  pose proof (stop_rel_ts c crit _ _ _ x1 _ Hcfg R1) as S. cbn [run]. destruct (step x1 OStop) as [x2 ob2]. cbn [fst].
  pose proof (a_run_flat ops None obs1 Hb L) as F. cbn [flat app] in F.
  destruct (a_run None ops obs1) as [[cl cu]|].
  - right. destruct S as [keys [V [K Rg]]]. exists keys, cl, cu. split; [exact V|]. split; [exact F|]. split; [exact K|].
    intros k Ik. specialize (Rg k Ik). lia.
  - left. split; [exact S | symmetry; exact F].
Qed.
Print Assumptions timestamps_stream.

(* ------------------------------------------------------------------ what keys_ok says, spelled out *)
(* (a) the text of each infix *)
Lemma infix_of_text e t m :
  infix_of e (t, m) = format_ts std_fmt (civil_of (t + e))
                       ++ match m with O => [] | S k => restart_tag ++ pad_left 4 48%N (dec (N.of_nat k)) end.
Proof. exact (infix_of_tail e (t, m)). Qed.

(* (b) strictly increasing in (second, position), (c) positions without gaps, (d) no name twice, none is rCURRENT's *)
Theorem keys_ok_order keys : keys_ok keys ->
  (forall i j, i < j < length keys ->
     let a := nth i keys kd in let b := nth j keys kd in (fst a < fst b)%Z \/ (fst a = fst b /\ snd a < snd b))
  /\ (forall i, i < length keys -> snd (nth i keys kd) = count (fst (nth i keys kd)) (firstn i keys)).
Proof. intros K. split; [exact (keys_sorted keys K) | exact (keys_position keys K)]. Qed.

Theorem ts_names_distinct c e lo hi keys : keys_ok keys -> years_ok e lo hi -> (forall k, In k keys -> (lo <= fst k <= hi)%Z) ->
  (forall i j, i < length keys -> j < length keys -> kname c e (nth i keys kd) = kname c e (nth j keys kd) -> i = j)
  /\ (forall i, i < length keys -> kname c e (nth i keys kd) <> cname c).
Proof.
  intros K Y Rg.
  assert (Yk : forall i, i < length keys -> in_years e (fst (nth i keys kd))).
  { intros i Hi. apply (years_in e lo hi _ Y). apply Rg, nth_In, Hi. }
  split.
  - intros i j Hi Hj E. apply kname_inj in E; [|apply Yk; assumption|apply Yk; assumption]. exact (keys_distinct keys K i j Hi Hj E).
  - intros i Hi. apply kname_not_cname, Yk, Hi.
Qed.

(* two special cases: all rotations within one second give the pure restart-counter sequence <ts>, <ts>.restart-0000,
   <ts>.restart-0001, ..; rotations in pairwise different seconds give no restart counter at all *)
Lemma count_all t l : (forall k, In k l -> fst k = t) -> count t l = length l.
Proof.
  intros H. unfold count. induction l as [|k l IH]; [reflexivity|]. cbn [filter].
  rewrite (H k (or_introl eq_refl)), Z.eqb_refl. cbn [length]. rewrite IH; [reflexivity|]. intros k' I. apply H. right. exact I.
Qed.
Lemma count_none t l : (forall k, In k l -> fst k <> t) -> count t l = 0.
Proof.
  intros H. unfold count. induction l as [|k l IH]; [reflexivity|]. cbn [filter].
  destruct (Z.eqb_spec (fst k) t) as [E|_]; [exfalso; exact (H k (or_introl eq_refl) E)|]. apply IH. intros k' I. apply H. right. exact I.
Qed.

Lemma in_firstn' {A} (l : list A) : forall n x, In x (firstn n l) -> In x l.
Proof. induction l as [|y l IH]; intros [|n] x H; cbn [firstn] in H; try destruct H; [left; assumption | right; eapply IH; eassumption]. Qed.
Lemma nth_firstn' {A} (l : list A) d : forall i j, j < i -> nth j (firstn i l) d = nth j l d.
Proof. induction l as [|y l IH]; intros [|i] [|j] H; cbn [firstn nth]; try reflexivity; try lia. apply IH. lia. Qed.

Corollary keys_one_second keys t : keys_ok keys -> (forall k, In k keys -> fst k = t) ->
  forall i, i < length keys -> nth i keys kd = (t, i).
Proof.
  intros K H i Hi. pose proof (keys_position keys K i Hi) as P.
  assert (Ei : fst (nth i keys kd) = t) by (apply H, nth_In, Hi).
  rewrite Ei, count_all in P by (intros k Ik; apply H; exact (in_firstn' _ _ _ Ik)).
  rewrite firstn_length, Nat.min_l in P by lia. destruct (nth i keys kd) as [a b]. cbn [fst snd] in *. subst. reflexivity.
Qed.

Corollary keys_different_seconds keys : keys_ok keys ->
  (forall i j, i < j < length keys -> fst (nth i keys kd) <> fst (nth j keys kd)) ->
  forall i, i < length keys -> snd (nth i keys kd) = 0.
Proof.
  intros K H i Hi. rewrite (keys_position keys K i Hi). apply count_none. intros k Ik.
  destruct (In_nth _ _ kd Ik) as [j [Hj Ej]]. rewrite firstn_length in Hj.
  rewrite <- Ej. rewrite (nth_firstn' keys kd i j) by lia. intros E. apply (H j i); [lia | exact E].
Qed.

(* without clock ticks every closed file carries the second of the start: the i-th closed file is <t0> for i = 0 and
   <t0>.restart-(i-1) otherwise *)
Corollary timestamps_stream_no_tick c crit t0 off ops :
  tscfg c crit -> tag_ok c -> Forall basic_op ops -> Forall (fun o => forall dt, o <> OTick dt) ops ->
  (0 <= t0 + ts_e c off < sec_max)%Z -> (N.of_nat (length ops) <= usize_max)%N ->
  let f := wfs (s_w (fst (run (sys0 t0 off) (OStart c :: ops ++ [OStop])))) in
  (names f = [] /\ written ops = [])
  \/ exists keys closed cur,
       ts_view c (ts_e c off) f keys closed cur /\ concat closed ++ cur = written ops
       /\ forall i, i < length keys -> nth i keys kd = (t0, i).
Proof.
  intros Hcfg T Hb Hnt Hr Hmax f.
  assert (Htk : Forall tick_ok ops /\ elapsed ops = 0%Z).
  { clear -Hnt. induction Hnt as [|o r Ho _ [IH1 IH2]]; [split; [constructor | reflexivity]|].
    destruct o; try (split; [constructor; [exact Logic.I | exact IH1] | cbn [elapsed dt_of]; lia]).
    exfalso. exact (Ho dt eq_refl). }
  destruct Htk as [Htk El].
  destruct (timestamps_stream c crit t0 off ops Hcfg T Hb Htk ltac:(lia) ltac:(lia) Hmax) as [H|[keys [cl [cu [V [F [K Rg]]]]]]]; [left; exact H | right].
  exists keys, cl, cu. split; [exact V|]. split; [exact F|]. apply keys_one_second; [exact K|]. intros k Ik. specialize (Rg k Ik). lia.
Qed.

Print Assumptions timestamps_stream_no_tick.

(* ------------------------------------------------------------------ the same with a list of (infix, content) pairs *)
Definition dir_exactly (c : config) (f : fs) (closed : list (bytes * bytes)) (cur : bytes) : Prop :=
  (forall i infix d, nth_error closed i = Some (infix, d) ->
     exists j, lookup f (nm c infix) = Some j /\ plain (inode f j) /\ content f j = d)
  /\ (exists j, lookup f (cname c) = Some j /\ plain (inode f j) /\ content f j = cur)
  /\ (forall n j, lookup f n = Some j -> n = cname c \/ exists i infix d, nth_error closed i = Some (infix, d) /\ n = nm c infix).

Lemma nth_error_combine_map {A} (g : A -> bytes) (da : A) : forall (ks : list A) (cl : list bytes) i, length ks = length cl ->
  (forall x d, nth_error (combine (List.map g ks) cl) i = Some (x, d) -> i < length cl /\ x = g (nth i ks da) /\ d = nth i cl [])
  /\ (i < length cl -> nth_error (combine (List.map g ks) cl) i = Some (g (nth i ks da), nth i cl [])).
Proof.
  induction ks as [|k ks IH]; intros [|d0 cl] i Hl; try discriminate.
  - split; [intros x d H; destruct i; discriminate | cbn; lia].
  - injection Hl as Hl. destruct i as [|i]; cbn [List.map combine nth_error nth length].
    + split; [intros x d H; injection H as <- <-; repeat split; lia | reflexivity].
    + destruct (IH cl i Hl) as [H1 H2]. split; [intros x d H; destruct (H1 x d H) as [? [? ?]]; repeat split; (lia || assumption) | intros H; apply H2; lia].
Qed.

Theorem timestamps_stream_pairs c crit t0 off ops :
  tscfg c crit -> tag_ok c -> Forall basic_op ops -> Forall tick_ok ops ->
  (0 <= t0 + ts_e c off)%Z -> (t0 + elapsed ops + ts_e c off < sec_max)%Z -> (N.of_nat (length ops) <= usize_max)%N ->
  let f := wfs (s_w (fst (run (sys0 t0 off) (OStart c :: ops ++ [OStop])))) in
  (names f = [] /\ written ops = [])
  \/ exists (closed : list (bytes * bytes)) (cur : bytes),
               dir_exactly c f closed cur
               /\ concat (List.map snd closed) ++ cur = written ops
               /\ (forall i j x d x' d', nth_error closed i = Some (x, d) -> nth_error closed j = Some (x', d') -> x = x' -> i = j)
               /\ (forall i x d, nth_error closed i = Some (x, d) -> x <> cur_infix)
               /\ exists keys, List.map fst closed = List.map (infix_of (ts_e c off)) keys /\ keys_ok keys
                               /\ (forall k, In k keys -> (t0 <= fst k <= t0 + elapsed ops)%Z).
Proof.
  intros Hcfg T Hb Htk Hlo Hhi Hmax f.
  destruct (timestamps_stream c crit t0 off ops Hcfg T Hb Htk Hlo Hhi Hmax) as [H|[keys [cl [cu [V [F [K Rg]]]]]]]; [left; exact H | right].
  fold f in V. destruct V as [Hlen [Hcl [Hcur [Hon Hnd]]]].
  set (e := ts_e c off) in *.
  assert (Y : years_ok e t0 (t0 + elapsed ops)) by (split; assumption).
  pose proof (fun i => nth_error_combine_map (infix_of e) kd keys cl i Hlen) as NC.
  exists (combine (List.map (infix_of e) keys) cl), cu.
  assert (Yi : forall i, i < length cl -> in_years e (fst (nth i keys kd))).
  { intros i Hi. apply (years_in e _ _ _ Y). apply Rg, nth_In. lia. }
  split; [|split; [|split; [|split]]].
  - split; [|split; [exact Hcur|]].
    + intros i x d H. destruct (proj1 (NC i) x d H) as [Hi [-> ->]]. exact (Hcl i Hi).
    + intros n j L. destruct (Hon n j L) as [->|[i [Hi ->]]]; [left; reflexivity | right].
      exists i, (infix_of e (nth i keys kd)), (nth i cl []). split; [apply (proj2 (NC i) Hi) | reflexivity].
  - assert (E : List.map snd (combine (List.map (infix_of e) keys) cl) = cl).
    { clear -Hlen. revert cl Hlen. induction keys as [|k ks IH]; intros [|d cl] Hl; try discriminate; [reflexivity|].
      cbn [List.map combine snd]. f_equal. apply IH. injection Hl as Hl. exact Hl. }
    rewrite E. exact F.
  - intros i j x d x' d' Hi Hj Ex. destruct (proj1 (NC i) x d Hi) as [Li [-> _]]. destruct (proj1 (NC j) x' d' Hj) as [Lj [-> _]].
    apply infix_of_inj in Ex; [|apply Yi; assumption|apply Yi; assumption]. apply (keys_distinct keys K); (lia || assumption).
  - intros i x d Hi. destruct (proj1 (NC i) x d Hi) as [Li [-> _]]. apply infix_of_not_cur, Yi, Li.
  - exists keys. split; [|split; assumption].
    clear -Hlen. revert cl Hlen. induction keys as [|k ks IH]; intros [|d cl] Hl; try discriminate; [reflexivity|].
    cbn [List.map combine fst]. f_equal. apply IH. injection Hl as Hl. exact Hl.
Qed.
Print Assumptions timestamps_stream_pairs.

(* ------------------------------------------------------------------ examples *)
Import String.StringSyntax.
Open Scope string_scope.
Definition ext_cfg (sp : file_spec) (app : bool) (crit : criterion) (cap : option nat) (utc : bool) : config :=
  {| c_spec := sp; c_append := app; c_cap := cap; c_rot := Some (crit, NTimestamps, KNever); c_utc := utc;
     c_symlink := false; c_bg := false; c_async := false; c_start := None |}.

Lemma ext_cfg_ok sp app crit cap utc : fts sp = false -> tscfg (ext_cfg sp app crit cap utc) crit.
Proof. intros H. repeat split. exact H. Qed.

(* three rotations within one second, then the clock advances, two more rotations: the fourth closed file still carries
   the second of its creation (restart-0002), the fifth the new second *)
Definition ext_ops : list op :=
  [OWrite (bs "a"); OTrigger; OWrite (bs "b"); OTrigger; OWrite (bs "c"); OTrigger; OWrite (bs "d"); OTick 1; OTrigger;
   OWrite (bs "e"); OFlush; OTrigger; OPlain (bs "f"); OSnap].
Definition ext_c : config := ext_cfg (ex_sp "log") false (CSize 100) (Some 3%nat) false.

Example ts_instance_dir :
  snap_of (fst (run (sys0 0 0) (OStart ext_c :: ext_ops ++ [OStop])))
  = [ (bs "app_r1970-01-01_00-00-00.log", 0%N, bs "a");
      (bs "app_r1970-01-01_00-00-00.restart-0000.log", 0%N, bs "b");
      (bs "app_r1970-01-01_00-00-00.restart-0001.log", 0%N, bs "c");
      (bs "app_r1970-01-01_00-00-00.restart-0002.log", 0%N, bs "d");
      (bs "app_r1970-01-01_00-00-01.log", 0%N, bs "e");
      (bs "app_rCURRENT.log", 0%N, bs "f") ].
Proof. vm_compute. reflexivity. Qed.

(* the hypotheses of the theorem can be met *)
Lemma ext_ops_basic : Forall basic_op ext_ops.
Proof. repeat constructor. Qed.
Lemma ext_ops_ticks : Forall tick_ok ext_ops.
Proof. repeat (apply Forall_cons; [cbn [tick_ok]; first [exact Logic.I | lia]|]). apply Forall_nil. Qed.
Lemma ext_c_ok : tscfg ext_c (CSize 100).
Proof. apply ext_cfg_ok. reflexivity. Qed.
Lemma ext_c_tag_free : tag_free ext_c.
Proof. split; vm_compute; reflexivity. Qed.
Lemma ext_c_tag_ok : tag_ok ext_c.
Proof. apply tag_free_ok, ext_c_tag_free. Qed.

Example ts_stream_instance :
  exists keys closed cur,
    ts_view ext_c 0 (wfs (s_w (fst (run (sys0 0 0) (OStart ext_c :: ext_ops ++ [OStop]))))) keys closed cur
    /\ concat closed ++ cur = bs "abcdef" /\ keys_ok keys /\ (forall k, In k keys -> (0 <= fst k <= 1)%Z).
Proof.
  destruct (timestamps_stream ext_c (CSize 100) 0 0 ext_ops ext_c_ok ext_c_tag_ok ext_ops_basic ext_ops_ticks)
    as [[_ H]|H]; [change (0 <= 0)%Z; lia | change (1 < sec_max)%Z; unfold sec_max; lia | vm_compute; discriminate | discriminate H | exact H].
Qed.

(* the keys of this history, as the invariant has them: (second, position) *)
Example ts_instance_keys :
  List.map (infix_of 0) [(0%Z, 0); (0%Z, 1); (0%Z, 2); (0%Z, 3); (1%Z, 0)]
  = [ bs "r1970-01-01_00-00-00"; bs "r1970-01-01_00-00-00.restart-0000"; bs "r1970-01-01_00-00-00.restart-0001";
      bs "r1970-01-01_00-00-00.restart-0002"; bs "r1970-01-01_00-00-01" ]
  /\ keys_ok [(0%Z, 0); (0%Z, 1); (0%Z, 2); (0%Z, 3); (1%Z, 0)].
Proof.
  split; [vm_compute; reflexivity|].
  apply (ko_snoc [(0%Z, 0); (0%Z, 1); (0%Z, 2); (0%Z, 3)] 1%Z); [|cbn; intros k H; repeat (destruct H as [<-|H]; [cbn; lia|]); destruct H].
  apply (ko_snoc [(0%Z, 0); (0%Z, 1); (0%Z, 2)] 0%Z); [|cbn; intros k H; repeat (destruct H as [<-|H]; [cbn; lia|]); destruct H].
  apply (ko_snoc [(0%Z, 0); (0%Z, 1)] 0%Z); [|cbn; intros k H; repeat (destruct H as [<-|H]; [cbn; lia|]); destruct H].
  apply (ko_snoc [(0%Z, 0)] 0%Z); [|cbn; intros k H; repeat (destruct H as [<-|H]; [cbn; lia|]); destruct H].
  apply (ko_snoc [] 0%Z); [constructor | intros k []].
Qed.

(* use_utc with a zone offset of two hours, a file spec without suffix and with a discriminant, an age criterion *)
Definition ext_sp2 : file_spec := {| fbase := bs "srv"; fdisc := Some (bs "a1"); fts := false; fsfx := None |}.
Definition ext_c2 (utc : bool) : config := ext_cfg ext_sp2 true (CAge ADay) None utc.
Definition ext_ops2 : list op := [OWrite (bs "x"); OTick 90000; OWrite (bs "y"); OWrite (bs "z")].
Example ts_age_dir_local :
  snap_of (fst (run (sys0 1700000000 7200) (OStart (ext_c2 false) :: ext_ops2 ++ [OStop])))
  = [ (bs "srv_a1_r2023-11-15_00-13-20", 0%N, bs "x"); (bs "srv_a1_rCURRENT", 0%N, bs "yz") ].
Proof. vm_compute. reflexivity. Qed.
Example ts_age_dir_utc :
  snap_of (fst (run (sys0 1700000000 7200) (OStart (ext_c2 true) :: ext_ops2 ++ [OStop])))
  = [ (bs "srv_a1_r2023-11-14_22-13-20", 0%N, bs "x"); (bs "srv_a1_rCURRENT", 0%N, bs "yz") ].
Proof. vm_compute. reflexivity. Qed.

(* ------------------------------------------------------------------ ".restart-" in the configured name parts *)
(* A basename that contains ".restart-7".  Before the repair collision_free_infix read the restart number at the FIRST
   ".restart-" of the whole file name - here always 7 -, so that the second rotation of a second produced <ts>.restart-0008 and
   the third one <ts>.restart-0008 again, the rename overwrote the file closed before, and of the contents a b c d e only a, d, e
   survived.  Now it looks for <ts> ++ ".restart-": the counters are 0000, 0001, 0002 and ALL of a, b, c, d, e are kept.  The
   configuration satisfies tag_ok (it is not tag_free), so this is an instance of the theorem. *)
Definition rst_ops : list op :=
  [OWrite (bs "a"); OTrigger; OWrite (bs "b"); OTrigger; OWrite (bs "c"); OTrigger; OWrite (bs "d"); OTick 1; OTrigger; OWrite (bs "e")].
Definition rst_sp1 : file_spec := {| fbase := bs "a.restart-7"; fdisc := None; fts := false; fsfx := Some (bs "log") |}.
Definition rst_c1 : config := ext_cfg rst_sp1 false (CSize 100) None false.

Lemma rst_c1_tag_ok : tag_ok rst_c1 /\ ~ tag_free rst_c1.
Proof.
  split.
  - split; [apply short_no_stamp_tag; vm_compute; lia|]. split; [apply short_no_stamp_tag; vm_compute; lia | vm_compute; reflexivity].
  - intros [H _]. vm_compute in H. discriminate.
Qed.

Example tag_in_basename_keeps_files :
  snap_of (fst (run (sys0 0 0) (OStart rst_c1 :: rst_ops ++ [OStop])))
  = [ (bs "a.restart-7_r1970-01-01_00-00-00.log", 0%N, bs "a");
      (bs "a.restart-7_r1970-01-01_00-00-00.restart-0000.log", 0%N, bs "b");
      (bs "a.restart-7_r1970-01-01_00-00-00.restart-0001.log", 0%N, bs "c");
      (bs "a.restart-7_r1970-01-01_00-00-00.restart-0002.log", 0%N, bs "d");
      (bs "a.restart-7_rCURRENT.log", 0%N, bs "e") ]
  /\ written rst_ops = bs "abcde"
  /\ tscfg rst_c1 (CSize 100).
Proof. split; [vm_compute; reflexivity|]. split; [vm_compute; reflexivity | apply ext_cfg_ok; reflexivity]. Qed.

Lemma rst_c1_ok : tscfg rst_c1 (CSize 100).
Proof. apply ext_cfg_ok. reflexivity. Qed.
Lemma rst_ops_basic : Forall basic_op rst_ops.
Proof. repeat constructor. Qed.
Lemma rst_ops_ticks : Forall tick_ok rst_ops.
Proof. repeat (apply Forall_cons; [cbn [tick_ok]; first [exact Logic.I | lia]|]). apply Forall_nil. Qed.

Example tag_in_basename_stream_instance :
  exists keys closed cur,
    ts_view rst_c1 0 (wfs (s_w (fst (run (sys0 0 0) (OStart rst_c1 :: rst_ops ++ [OStop]))))) keys closed cur
    /\ concat closed ++ cur = bs "abcde" /\ keys_ok keys /\ (forall k, In k keys -> (0 <= fst k <= 1)%Z).
Proof.
  destruct (timestamps_stream rst_c1 (CSize 100) 0 0 rst_ops rst_c1_ok (proj1 rst_c1_tag_ok) rst_ops_basic rst_ops_ticks)
    as [[_ H]|H]; [change (0 <= 0)%Z; lia | change (1 < sec_max)%Z; unfold sec_max; lia | vm_compute; discriminate | discriminate H | exact H].
Qed.

(* ------------------------------------------------------------------ the hypotheses are needed *)
(* (1) tag_ok, the suffix does not start with "restart-": with the suffix "restart-5" the name of the first file of a second,
   <ts>.restart-5, still reads like a restart sibling of <ts> with the counter 5 - it contains <ts> ++ ".restart-", and the
   digits that follow are taken for the counter.  Nothing is lost, but the counters start at 0006 instead of 0000, so the
   positions in keys_ok are not the ones of the names.  (The model mirrors file_spec.rs after the repair.) *)
Definition bad_sp2 : file_spec := {| fbase := bs "a"; fdisc := None; fts := false; fsfx := Some (bs "restart-5") |}.
Example tag_in_suffix_shifts_counters :
  snap_of (fst (run (sys0 0 0) (OStart (ext_cfg bad_sp2 false (CSize 100) None false) :: rst_ops ++ [OStop])))
  = [ (bs "a_r1970-01-01_00-00-00.restart-0006.restart-5", 0%N, bs "b");
      (bs "a_r1970-01-01_00-00-00.restart-0007.restart-5", 0%N, bs "c");
      (bs "a_r1970-01-01_00-00-00.restart-0008.restart-5", 0%N, bs "d");
      (bs "a_r1970-01-01_00-00-00.restart-5", 0%N, bs "a");
      (bs "a_rCURRENT.restart-5", 0%N, bs "e") ]
  /\ ~ tag_ok (ext_cfg bad_sp2 false (CSize 100) None false).
Proof. split; [vm_compute; reflexivity|]. intros [_ [_ H]]. vm_compute in H. discriminate. Qed.

(* a suffix that merely contains ".restart-" (not at its start, no time stamp in front of it) is harmless: tag_ok holds for it
   (tag_free does not) *)
Definition rst_sp3 : file_spec := {| fbase := bs "a"; fdisc := None; fts := false; fsfx := Some (bs "x.restart-5") |}.
Example tag_inside_suffix_harmless :
  snap_of (fst (run (sys0 0 0) (OStart (ext_cfg rst_sp3 false (CSize 100) None false) :: rst_ops ++ [OStop])))
  = [ (bs "a_r1970-01-01_00-00-00.restart-0000.x.restart-5", 0%N, bs "b");
      (bs "a_r1970-01-01_00-00-00.restart-0001.x.restart-5", 0%N, bs "c");
      (bs "a_r1970-01-01_00-00-00.restart-0002.x.restart-5", 0%N, bs "d");
      (bs "a_r1970-01-01_00-00-00.x.restart-5", 0%N, bs "a");
      (bs "a_rCURRENT.x.restart-5", 0%N, bs "e") ]
  /\ tag_ok (ext_cfg rst_sp3 false (CSize 100) None false) /\ ~ tag_free (ext_cfg rst_sp3 false (CSize 100) None false).
Proof.
  split; [vm_compute; reflexivity|]. split.
  - split; [apply short_no_stamp_tag; vm_compute; lia|]. split; [apply short_no_stamp_tag; vm_compute; lia | vm_compute; reflexivity].
  - intros [_ H]. vm_compute in H. discriminate.
Qed.

(* (2) tick_ok: when the clock goes backwards the closing order is no longer the order of the time stamps: "b" is closed
   before "c" but carries the later second; nothing is lost *)
Definition back_ops : list op :=
  [OWrite (bs "a"); OTick 5; OTrigger; OWrite (bs "b"); OTick (-5); OTrigger; OWrite (bs "c"); OTrigger; OWrite (bs "d")].
Example clock_backwards_order :
  snap_of (fst (run (sys0 0 0) (OStart ext_c :: back_ops ++ [OStop])))
  = [ (bs "app_r1970-01-01_00-00-00.log", 0%N, bs "a");
      (bs "app_r1970-01-01_00-00-00.restart-0000.log", 0%N, bs "c");
      (bs "app_r1970-01-01_00-00-05.log", 0%N, bs "b");
      (bs "app_rCURRENT.log", 0%N, bs "d") ].
Proof. vm_compute. reflexivity. Qed.
