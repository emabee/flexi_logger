(* C03 for the ASYNCHRONOUS file writer, and for the synchronous writer with the other three naming schemes.

   Several threads log concurrently.  Thread t has the records  nth t ts  to log, in this order.

   ASYNCHRONOUS writer (WriteMode::Async): a log call formats the record and SENDS it into the FIFO channel
   (crossbeam, unbounded); the writer thread RECEIVES the messages one after the other and executes
   State::write_buffer for each (Run.async_consume; for a running, unpoisoned writer this is what
   `step x (OWrite b)` does: NumAsync.step_async_basic).  The channel serialises the sends: one send is one atomic
   step.  A schedule is therefore a list of events
       ESend t    thread t sends its next record (ignored when thread t has nothing left)
       EConsume   the writer thread takes the oldest message out of the channel and writes it (ignored when the
                  channel is empty).
   Run.v itself lets every message be consumed before the next operation starts; the schedules here are MORE
   general: the writer thread may lag behind arbitrarily.  Dropping the writer sends the shutdown message behind
   everything that is in the channel: the writer thread works off what is left, then shuts down (cfinish).

   sent ts evs = (m, rest): m is the order in which the records entered the channel - the interleaving that the
   schedule defines -, rest is what the threads have not sent.

   async_schedule_run: for EVERY configuration, threads and schedule, the system after the schedule and the drop is
   the system after the sequential history  OStart c :: map OWrite m ++ [OStop].
   sent_merge: when all threads have finished, m is an interleaving of the threads' sequences (O_Merge.Merge: every
   record exactly once, intact, each thread's records in their order).
   Hence with the stream theorems of NumAsync / NumDAsync / TsdAsync / TsAsync: the files hold exactly concat m
   (async_merge_numbers, async_merge_numbersdirect, async_merge_timestampsdirect, async_merge_timestamps).

   SYNCHRONOUS writer: the state mutex serialises the write_buffer calls; a schedule is the list of the threads in
   the order in which they get the lock (sync_schedule_run; the sync_merge theorems). *)
Require Import FL.Base.Bytes FL.Base.BytesFacts FL.Base.PathName FL.Fs.Fs FL.Fs.FsFacts FL.Time.Civil FL.Time.TsFormat
  FL.Names.FileSpec FL.Names.NamesFacts FL.Flw.Model FL.Flw.ModelFacts FL.Flw.NumFs FL.Flw.NumInv FL.Flw.Run FL.Flw.RunFacts
  FL.Flw.NumRun FL.Oracles.O_Flw FL.Oracles.O_Merge FL.Flw.NumTheorems FL.Flw.NumAsync
  FL.Flw.NumDInv FL.Flw.NumDRun FL.Flw.NumDTheorems
  FL.Flw.TsCal FL.Flw.TsTime FL.Flw.TsNames FL.Flw.TsInv FL.Flw.TsRun FL.Flw.TsTheorems
  FL.Flw.TsdInv FL.Flw.TsdRun FL.Flw.TsdTheorems
  FL.Flw.AsyncSim FL.Flw.AsyncTransfer FL.Flw.NumDAsync FL.Flw.TsdAsync FL.Flw.TsAsync.
From Coq Require Import ZifyN ZifyNat ZifyBool Permutation.
Open Scope nat_scope.

(* ------------------------------------------------------------------ threads and schedules *)
Definition threads := list (list bytes).

Fixpoint tupd (ts : threads) (t : nat) (r : list bytes) : threads :=
  match ts, t with
  | [], _ => []
  | _ :: rest, O => r :: rest
  | y :: rest, S k => y :: tupd rest k r
  end.

(* the next record of thread t, and the threads after it has been taken *)
Definition next_of (ts : threads) (t : nat) : option (bytes * threads) :=
  match nth_error ts t with
  | Some (x :: r) => Some (x, tupd ts t r)
  | _ => None
  end.

Definition all_done (ts : threads) : bool := forallb (fun t => match t with [] => true | _ => false end) ts.

Lemma next_of_spec : forall ts t x ts', next_of ts t = Some (x, ts') ->
  exists ts1 r ts2, ts = ts1 ++ (x :: r) :: ts2 /\ ts' = ts1 ++ r :: ts2.
Proof.
  unfold next_of. induction ts as [|y rest IH]; intros t x ts' H; [destruct t; discriminate|].
  destruct t as [|k]; cbn [nth_error tupd] in H.
  - destruct y as [|x0 r]; [discriminate|]. injection H as <- <-. exists [], r, rest. split; reflexivity.
  - destruct (nth_error rest k) as [[|x0 r]|] eqn:E; try discriminate. injection H as <- <-.
    destruct (IH k x0 (tupd rest k r)) as [ts1 [r' [ts2 [E1 E2]]]]; [rewrite E; reflexivity|].
    exists (y :: ts1), r', ts2. cbn [app]. rewrite <- E1, <- E2. split; reflexivity.
Qed.

Lemma all_done_spec ts : all_done ts = true -> Forall (fun t => t = []) ts.
Proof.
  unfold all_done. intros H. apply Forall_forall. intros t Ht. rewrite forallb_forall in H. specialize (H t Ht).
  destruct t; [reflexivity | discriminate].
Qed.

(* ------------------------------------------------------------------ the asynchronous writer under a schedule *)
Inductive ev := ESend (t : nat) | EConsume.

(* the order in which the records enter the channel, and what the threads have left *)
Fixpoint sent (ts : threads) (evs : list ev) : list bytes * threads :=
  match evs with
  | [] => ([], ts)
  | ESend t :: r =>
    match next_of ts t with
    | Some (x, ts') => let '(m, tf) := sent ts' r in (x :: m, tf)
    | None => sent ts r
    end
  | EConsume :: r => sent ts r
  end.

(* when the threads have finished, the order of the sends is an interleaving of the threads' sequences *)
Theorem sent_merge : forall evs ts m tf, sent ts evs = (m, tf) -> all_done tf = true -> Merge ts m.
Proof.
  induction evs as [|e r IH]; intros ts m tf H D; cbn [sent] in H.
  - injection H as <- <-. apply merge_done. apply all_done_spec. exact D.
  - destruct e as [t|]; [|exact (IH ts m tf H D)].
    destruct (next_of ts t) as [[x ts']|] eqn:En; [|exact (IH ts m tf H D)].
    destruct (sent ts' r) as [m' tf'] eqn:Es. injection H as <- <-.
    destruct (next_of_spec ts t x ts' En) as [ts1 [r' [ts2 [-> ->]]]].
    apply merge_step. exact (IH _ m' tf' Es D).
Qed.

(* the system: the writer (with its state, the world), the channel, the threads *)
Record cst := { c_sys : sys; c_chan : list bytes; c_thr : threads }.

Definition cstep (st : cst) (e : ev) : cst :=
  match e with
  | ESend t =>
    match next_of (c_thr st) t with
    | Some (x, ts') => {| c_sys := c_sys st; c_chan := c_chan st ++ [x]; c_thr := ts' |}
    | None => st
    end
  | EConsume =>
    match c_chan st with
    | b :: q => {| c_sys := fst (step (c_sys st) (OWrite b)); c_chan := q; c_thr := c_thr st |}
    | [] => st
    end
  end.
Definition cexec (st : cst) (evs : list ev) : cst := fold_left cstep evs st.

(* the writer is dropped: the shutdown message queues behind what is in the channel *)
Definition cfinish (st : cst) : sys := fst (run (c_sys st) (List.map OWrite (c_chan st) ++ [OStop])).

(* the whole concurrent history: start the writer, let the threads and the writer thread run as the schedule says,
   drop the writer *)
Definition async_conc (c : config) (t0 off : Z) (ts : threads) (evs : list ev) : sys :=
  cfinish (cexec {| c_sys := fst (step (sys0 t0 off) (OStart c)); c_chan := []; c_thr := ts |} evs).

Lemma run_fst_app ops1 ops2 x : fst (run x (ops1 ++ ops2)) = fst (run (fst (run x ops1)) ops2).
Proof. rewrite run_app. destruct (run x ops1) as [x1 o1]. cbn [fst]. destruct (run x1 ops2). reflexivity. Qed.

Lemma run_fst_cons o ops x : fst (run x (o :: ops)) = fst (run (fst (step x o)) ops).
Proof. cbn [run]. destruct (step x o) as [x1 ob]. cbn [fst]. destruct (run x1 ops). reflexivity. Qed.
Lemma run_fst_one o x : fst (run x [o]) = fst (step x o).
Proof. rewrite run_fst_cons. reflexivity. Qed.

Lemma cexec_run : forall evs st,
  let st' := cexec st evs in
  c_thr st' = snd (sent (c_thr st) evs)
  /\ exists done, c_sys st' = fst (run (c_sys st) (List.map OWrite done))
       /\ c_chan st ++ fst (sent (c_thr st) evs) = done ++ c_chan st'.
Proof.
  induction evs as [|e r IH]; intros st; cbn [cexec fold_left sent].
  - cbn [fst snd]. split; [reflexivity|]. exists []. split; [reflexivity|]. rewrite app_nil_r. reflexivity.
  - fold (cexec (cstep st e) r). specialize (IH (cstep st e)). cbv zeta in IH. destruct IH as [IH1 [done [IH2 IH3]]].
    destruct e as [t|]; cbn [cstep] in *.
    + destruct (next_of (c_thr st) t) as [[x ts']|] eqn:En; cbn [c_sys c_chan c_thr] in *.
      * destruct (sent ts' r) as [m tf] eqn:Es. cbn [fst snd] in *. split; [exact IH1|]. exists done. split; [exact IH2|].
        rewrite <- IH3, <- app_assoc. reflexivity.
      * split; [exact IH1|]. exists done. split; assumption.
    + destruct (c_chan st) as [|b q] eqn:Ec; cbn [c_sys c_chan c_thr] in *.
      * rewrite Ec in *. split; [exact IH1|]. exists done. split; assumption.
      * split; [exact IH1|]. exists (b :: done). split.
        -- rewrite IH2. cbn [List.map run]. destruct (step (c_sys st) (OWrite b)) as [x1 ob]. cbn [fst].
           destruct (run x1 (List.map OWrite done)) as [x2 obs]. reflexivity.
        -- cbn [app]. rewrite IH3. reflexivity.
Qed.

(* EVERY configuration: the concurrent history under any schedule ends in the same system as the sequential
   history of the records in the order in which they entered the channel *)
Theorem async_schedule_run c t0 off ts evs :
  async_conc c t0 off ts evs = fst (run (sys0 t0 off) (OStart c :: List.map OWrite (fst (sent ts evs)) ++ [OStop])).
Proof.
  unfold async_conc, cfinish.
  destruct (cexec_run evs {| c_sys := fst (step (sys0 t0 off) (OStart c)); c_chan := []; c_thr := ts |}) as [_ [done [E1 E2]]].
  cbn [c_sys c_chan c_thr app] in E1, E2. rewrite E1, E2, map_app, <- app_assoc.
  rewrite <- run_fst_app, run_fst_cons. reflexivity.
Qed.

(* ------------------------------------------------------------------ histories of log calls *)
Lemma basic_writes m : Forall basic_op (List.map OWrite m).
Proof. apply Forall_forall. intros o Ho. apply in_map_iff in Ho. destruct Ho as [b [<- _]]. exact Logic.I. Qed.
Lemma tick_ok_writes m : Forall tick_ok (List.map OWrite m).
Proof. apply Forall_forall. intros o Ho. apply in_map_iff in Ho. destruct Ho as [b [<- _]]. exact Logic.I. Qed.
Lemma written_writes m : written (List.map OWrite m) = concat m.
Proof. induction m as [|b m IH]; [reflexivity|]. cbn [List.map written concat]. rewrite IH. reflexivity. Qed.
Lemma elapsed_writes m : elapsed (List.map OWrite m) = 0%Z.
Proof. induction m as [|b m IH]; [reflexivity|]. cbn [List.map elapsed dt_of]. rewrite IH. reflexivity. Qed.

(* an interleaving is a permutation of all records: nothing lost, nothing duplicated, nothing invented *)
Theorem Merge_perm ts m : Merge ts m -> Permutation m (concat ts).
Proof.
  induction 1 as [ts Hall | ts1 x r ts2 m HM IH].
  - assert (E : concat ts = []) by (induction ts as [|t ts IHt]; [reflexivity|]; inversion Hall as [|? ? Ht Hr]; subst; cbn; apply IHt; exact Hr).
    rewrite E. constructor.
  - rewrite concat_app in *. cbn [concat] in *. rewrite <- app_comm_cons. apply Permutation_cons_app. exact IH.
Qed.

(* once the threads have finished, the channel order is an interleaving, hence a permutation, of the records *)
Lemma sent_done ts evs : all_done (snd (sent ts evs)) = true ->
  Merge ts (fst (sent ts evs)) /\ Permutation (fst (sent ts evs)) (concat ts).
Proof.
  intros D. assert (M : Merge ts (fst (sent ts evs))) by (apply (sent_merge evs ts _ (snd (sent ts evs))); [destruct (sent ts evs); reflexivity | exact D]).
  split; [exact M | exact (Merge_perm _ _ M)].
Qed.

(* ------------------------------------------------------------------ ASYNCHRONOUS writer: the four naming schemes *)
(* Numbers naming, every criterion, every buffer capacity *)
Theorem async_merge_numbers c crit t0 off ts evs :
  numacfg c crit ->
  let m := fst (sent ts evs) in
  (exists files, reads c (wfs (s_w (async_conc c t0 off ts evs))) files /\ concat files = concat m)
  /\ (all_done (snd (sent ts evs)) = true -> Merge ts m /\ Permutation m (concat ts)).
Proof.
  intros Hc. cbv zeta. split.
  - rewrite async_schedule_run.
    destruct (async_numbers_stream c crit t0 off _ Hc (basic_writes (fst (sent ts evs)))) as [files [R E]].
    exists files. split; [exact R|]. rewrite E. apply written_writes.
  - exact (sent_done ts evs).
Qed.

Theorem async_merge_numbersdirect c crit t0 off ts evs :
  numdacfg c crit ->
  let m := fst (sent ts evs) in
  (exists files, direct_view c (wfs (s_w (async_conc c t0 off ts evs))) files /\ concat files = concat m)
  /\ (all_done (snd (sent ts evs)) = true -> Merge ts m /\ Permutation m (concat ts)).
Proof.
  intros Hc. cbv zeta. split.
  - rewrite async_schedule_run.
    destruct (async_numd_stream c crit t0 off _ Hc (basic_writes (fst (sent ts evs)))) as [files [R E]].
    exists files. split; [exact R|]. rewrite E. apply written_writes.
  - exact (sent_done ts evs).
Qed.

(* TimestampsDirect naming: the files named by the keys (time stamp, restart number), in the order of the keys *)
Theorem async_merge_timestampsdirect c crit t0 off ts evs :
  tsdacfg c crit -> tag_ok c ->
  let m := fst (sent ts evs) in
  (0 <= t0 + ts_e c off)%Z -> (t0 + ts_e c off < sec_max)%Z -> (N.of_nat (length m) <= usize_max)%N ->
  (exists keys files, tsd_view c (ts_e c off) (wfs (s_w (async_conc c t0 off ts evs))) keys files
      /\ concat files = concat m /\ keys_ok keys /\ (forall k, In k keys -> fst k = t0))
  /\ (all_done (snd (sent ts evs)) = true -> Merge ts m /\ Permutation m (concat ts)).
Proof.
  intros Hc T. cbv zeta. intros Hlo Hhi Hmax. split.
  - rewrite async_schedule_run.
    assert (Hhi' : (t0 + elapsed (List.map OWrite (fst (sent ts evs))) + ts_e c off < sec_max)%Z) by (rewrite elapsed_writes; lia).
    assert (Hmax' : (N.of_nat (length (List.map OWrite (fst (sent ts evs)))) <= usize_max)%N) by (rewrite map_length; exact Hmax).
    destruct (async_tsd_stream c crit t0 off _ Hc T (basic_writes _) (tick_ok_writes _) Hlo Hhi' Hmax') as [keys [files [V [E [K Rg]]]]].
    exists keys, files. split; [exact V|]. split; [rewrite E; apply written_writes|]. split; [exact K|].
    intros k Hk. specialize (Rg k Hk). rewrite elapsed_writes in Rg. lia.
  - exact (sent_done ts evs).
Qed.

(* Timestamps naming: the closed files in the order of their keys, then rCURRENT *)
Theorem async_merge_timestamps c crit t0 off ts evs :
  tsacfg c crit -> tag_ok c ->
  let m := fst (sent ts evs) in
  (0 <= t0 + ts_e c off)%Z -> (t0 + ts_e c off < sec_max)%Z -> (N.of_nat (length m) <= usize_max)%N ->
  let f := wfs (s_w (async_conc c t0 off ts evs)) in
  ((names f = [] /\ concat m = [])
   \/ exists keys closed cur, ts_view c (ts_e c off) f keys closed cur
        /\ concat closed ++ cur = concat m /\ keys_ok keys /\ (forall k, In k keys -> fst k = t0))
  /\ (all_done (snd (sent ts evs)) = true -> Merge ts m /\ Permutation m (concat ts)).
Proof.
  intros Hc T. cbv zeta. intros Hlo Hhi Hmax. split.
  - rewrite async_schedule_run.
    assert (Hhi' : (t0 + elapsed (List.map OWrite (fst (sent ts evs))) + ts_e c off < sec_max)%Z) by (rewrite elapsed_writes; lia).
    assert (Hmax' : (N.of_nat (length (List.map OWrite (fst (sent ts evs)))) <= usize_max)%N) by (rewrite map_length; exact Hmax).
    destruct (async_ts_stream c crit t0 off _ Hc T (basic_writes _) (tick_ok_writes _) Hlo Hhi' Hmax') as [[N0 W0] | [keys [closed [cur [V [E [K Rg]]]]]]].
    + left. split; [exact N0|]. rewrite <- written_writes. exact W0.
    + right. exists keys, closed, cur. split; [exact V|]. split; [rewrite E; apply written_writes|]. split; [exact K|].
      intros k Hk. specialize (Rg k Hk). rewrite elapsed_writes in Rg. lia.
  - exact (sent_done ts evs).
Qed.

(* ------------------------------------------------------------------ SYNCHRONOUS writer under a schedule *)
(* the state mutex serialises the log calls: a schedule is the order in which the threads get the lock *)
Fixpoint locked (ts : threads) (sched : list nat) : list bytes * threads :=
  match sched with
  | [] => ([], ts)
  | t :: r =>
    match next_of ts t with
    | Some (x, ts') => let '(m, tf) := locked ts' r in (x :: m, tf)
    | None => locked ts r
    end
  end.

Definition sync_cstep (st : sys * threads) (t : nat) : sys * threads :=
  match next_of (snd st) t with
  | Some (x, ts') => (fst (step (fst st) (OWrite x)), ts')
  | None => st
  end.
Definition sync_conc (c : config) (t0 off : Z) (ts : threads) (sched : list nat) : sys :=
  fst (step (fst (fold_left sync_cstep sched (fst (step (sys0 t0 off) (OStart c)), ts))) OStop).

(* the lock order is the channel order of the schedule in which every thread sends when it gets the lock *)
Lemma locked_sent : forall sched ts, locked ts sched = sent ts (List.map ESend sched).
Proof.
  induction sched as [|t r IH]; intros ts; cbn [locked sent List.map]; [reflexivity|].
  destruct (next_of ts t) as [[x ts']|]; rewrite IH; reflexivity.
Qed.

Theorem locked_merge : forall sched ts m tf, locked ts sched = (m, tf) -> all_done tf = true -> Merge ts m.
Proof. intros sched ts m tf H. rewrite locked_sent in H. exact (sent_merge _ ts m tf H). Qed.

Lemma sync_fold_run : forall sched x ts,
  fold_left sync_cstep sched (x, ts) = (fst (run x (List.map OWrite (fst (locked ts sched)))), snd (locked ts sched)).
Proof.
  induction sched as [|t r IH]; intros x ts; cbn [fold_left locked]; [reflexivity|].
  unfold sync_cstep at 2. cbn [fst snd]. destruct (next_of ts t) as [[b ts']|] eqn:En.
  - rewrite IH. destruct (locked ts' r) as [m tf]. cbn [fst snd List.map run].
    destruct (step x (OWrite b)) as [x1 ob]. cbn [fst]. destruct (run x1 (List.map OWrite m)) as [x2 obs]. reflexivity.
  - apply IH.
Qed.

Theorem sync_schedule_run c t0 off ts sched :
  sync_conc c t0 off ts sched = fst (run (sys0 t0 off) (OStart c :: List.map OWrite (fst (locked ts sched)) ++ [OStop])).
Proof.
  unfold sync_conc. rewrite sync_fold_run. cbn [fst]. rewrite run_fst_cons, run_fst_app, run_fst_one. reflexivity.
Qed.

Theorem sync_merge_numbers c crit t0 off ts sched :
  numcfg c crit ->
  let m := fst (locked ts sched) in
  (exists files, reads c (wfs (s_w (sync_conc c t0 off ts sched))) files /\ concat files = concat m)
  /\ (all_done (snd (locked ts sched)) = true -> Merge ts m /\ Permutation m (concat ts)).
Proof.
  intros Hc. cbv zeta. split.
  - rewrite sync_schedule_run.
    destruct (numbers_stream c crit t0 off _ Hc (basic_writes (fst (locked ts sched)))) as [files [R E]].
    exists files. split; [exact R|]. rewrite E. apply written_writes.
  - rewrite locked_sent. exact (sent_done ts (List.map ESend sched)).
Qed.

Theorem sync_merge_numbersdirect c crit t0 off ts sched :
  numdcfg c crit ->
  let m := fst (locked ts sched) in
  (exists files, direct_view c (wfs (s_w (sync_conc c t0 off ts sched))) files /\ concat files = concat m)
  /\ (all_done (snd (locked ts sched)) = true -> Merge ts m /\ Permutation m (concat ts)).
Proof.
  intros Hc. cbv zeta. split.
  - rewrite sync_schedule_run.
    destruct (numbersdirect_stream c crit t0 off _ Hc (basic_writes (fst (locked ts sched)))) as [files [R E]].
    exists files. split; [exact R|]. rewrite E. apply written_writes.
  - rewrite locked_sent. exact (sent_done ts (List.map ESend sched)).
Qed.

Theorem sync_merge_timestampsdirect c crit t0 off ts sched :
  tsdcfg c crit -> tag_ok c ->
  let m := fst (locked ts sched) in
  (0 <= t0 + ts_e c off)%Z -> (t0 + ts_e c off < sec_max)%Z -> (N.of_nat (length m) <= usize_max)%N ->
  (exists keys files, tsd_view c (ts_e c off) (wfs (s_w (sync_conc c t0 off ts sched))) keys files
      /\ concat files = concat m /\ keys_ok keys /\ (forall k, In k keys -> fst k = t0))
  /\ (all_done (snd (locked ts sched)) = true -> Merge ts m /\ Permutation m (concat ts)).
Proof.
  intros Hc T. cbv zeta. intros Hlo Hhi Hmax. split.
  - rewrite sync_schedule_run.
    assert (Hhi' : (t0 + elapsed (List.map OWrite (fst (locked ts sched))) + ts_e c off < sec_max)%Z) by (rewrite elapsed_writes; lia).
    assert (Hmax' : (N.of_nat (length (List.map OWrite (fst (locked ts sched)))) <= usize_max)%N) by (rewrite map_length; exact Hmax).
    destruct (timestampsdirect_stream_view c crit t0 off _ Hc T (basic_writes _) (tick_ok_writes _) Hlo Hhi' Hmax') as [keys [files [V [E [K Rg]]]]].
    exists keys, files. split; [exact V|]. split; [rewrite E; apply written_writes|]. split; [exact K|].
    intros k Hk. specialize (Rg k Hk). rewrite elapsed_writes in Rg. lia.
  - rewrite locked_sent. exact (sent_done ts (List.map ESend sched)).
Qed.

Theorem sync_merge_timestamps c crit t0 off ts sched :
  tscfg c crit -> tag_ok c ->
  let m := fst (locked ts sched) in
  (0 <= t0 + ts_e c off)%Z -> (t0 + ts_e c off < sec_max)%Z -> (N.of_nat (length m) <= usize_max)%N ->
  let f := wfs (s_w (sync_conc c t0 off ts sched)) in
  ((names f = [] /\ concat m = [])
   \/ exists keys closed cur, ts_view c (ts_e c off) f keys closed cur
        /\ concat closed ++ cur = concat m /\ keys_ok keys /\ (forall k, In k keys -> fst k = t0))
  /\ (all_done (snd (locked ts sched)) = true -> Merge ts m /\ Permutation m (concat ts)).
Proof.
  intros Hc T. cbv zeta. intros Hlo Hhi Hmax. split.
  - rewrite sync_schedule_run.
    assert (Hhi' : (t0 + elapsed (List.map OWrite (fst (locked ts sched))) + ts_e c off < sec_max)%Z) by (rewrite elapsed_writes; lia).
    assert (Hmax' : (N.of_nat (length (List.map OWrite (fst (locked ts sched)))) <= usize_max)%N) by (rewrite map_length; exact Hmax).
    destruct (timestamps_stream c crit t0 off _ Hc T (basic_writes _) (tick_ok_writes _) Hlo Hhi' Hmax') as [[N0 W0] | [keys [closed [cur [V [E [K Rg]]]]]]].
    + left. split; [exact N0|]. rewrite <- written_writes. exact W0.
    + right. exists keys, closed, cur. split; [exact V|]. split; [rewrite E; apply written_writes|]. split; [exact K|].
      intros k Hk. specialize (Rg k Hk). rewrite elapsed_writes in Rg. lia.
  - rewrite locked_sent. exact (sent_done ts (List.map ESend sched)).
Qed.

(* ------------------------------------------------------------------ non-vacuity: four threads, a lagging writer thread *)
Section Examples.
Open Scope N_scope.
Definition exm (nam : naming) (async : bool) : config :=
  {| c_spec := {| fbase := [97]; fdisc := None; fts := false; fsfx := Some [108; 111; 103] |};
     c_append := false; c_cap := Some 4%nat; c_rot := Some (CSize 5, nam, KNever); c_utc := false;
     c_symlink := false; c_bg := false; c_async := async; c_start := None |}.
(* threads A (3 records), B (2), an idle one, C (1); lines "A1\n" ... *)
Definition ex_threads : threads := [[[65;49;10]; [65;50;10]; [65;51;10]]; [[66;49;10]; [66;50;10]]; []; [[67;49;10]]].
(* sends B A . C (idle) A . . B A . (A has nothing left); the writer thread (.) lags behind: two records are still in
   the channel when the writer is dropped *)
Definition ex_sched : list ev :=
  [ESend 1; ESend 0; EConsume; ESend 3; ESend 2; ESend 0; EConsume; EConsume; ESend 1; ESend 0; EConsume; ESend 0]%nat.
Definition ex_m : list bytes := [[66;49;10]; [65;49;10]; [67;49;10]; [65;50;10]; [66;50;10]; [65;51;10]].

Lemma exm_tag_ok nam async : tag_ok (exm nam async).
Proof. apply tag_free_ok. split; vm_compute; reflexivity. Qed.

Example ex_async_hyps :
  numacfg (exm NNumbers true) (CSize 5) /\ numdacfg (exm NNumbersDirect true) (CSize 5)
  /\ tsdacfg (exm NTimestampsDirect true) (CSize 5) /\ tsacfg (exm NTimestamps true) (CSize 5)
  /\ numcfg (exm NNumbers false) (CSize 5) /\ numdcfg (exm NNumbersDirect false) (CSize 5)
  /\ tsdcfg (exm NTimestampsDirect false) (CSize 5) /\ tscfg (exm NTimestamps false) (CSize 5)
  /\ sent ex_threads ex_sched = (ex_m, [[]; []; []; []]) /\ all_done (snd (sent ex_threads ex_sched)) = true
  /\ merge_check ex_threads ex_m = true
  /\ (0 <= 1000000000 + ts_e (exm NTimestamps true) 3600)%Z /\ (1000000000 + ts_e (exm NTimestamps true) 3600 < sec_max)%Z
  /\ (N.of_nat (length ex_m) <= usize_max)%N.
Proof.
  split; [repeat split|]. split; [repeat split|]. split; [repeat split|]. split; [repeat split|].
  split; [repeat split|]. split; [repeat split|]. split; [repeat split|]. split; [repeat split|].
  split; [vm_compute; reflexivity|]. split; [vm_compute; reflexivity|]. split; [vm_compute; reflexivity|].
  split; [vm_compute; discriminate|]. split; [vm_compute; reflexivity|]. vm_compute; discriminate.
Qed.

(* Numbers: r00000 = B1 A1, r00001 = C1 A2, rCURRENT = B2 A3 *)
Example ex_async_numbers :
  snapshot (s_w (async_conc (exm NNumbers true) 1000000000 3600 ex_threads ex_sched))
  = ObsSnap [([97; 95; 114; 48; 48; 48; 48; 48; 46; 108; 111; 103], 0, [66; 49; 10; 65; 49; 10]);
             ([97; 95; 114; 48; 48; 48; 48; 49; 46; 108; 111; 103], 0, [67; 49; 10; 65; 50; 10]);
             ([97; 95; 114; 67; 85; 82; 82; 69; 78; 84; 46; 108; 111; 103], 0, [66; 50; 10; 65; 51; 10])] None [].
Proof. vm_compute. reflexivity. Qed.
Example ex_async_numbersdirect :
  snapshot (s_w (async_conc (exm NNumbersDirect true) 1000000000 3600 ex_threads ex_sched))
  = ObsSnap [([97; 95; 114; 48; 48; 48; 48; 48; 46; 108; 111; 103], 0, [66; 49; 10; 65; 49; 10]);
             ([97; 95; 114; 48; 48; 48; 48; 49; 46; 108; 111; 103], 0, [67; 49; 10; 65; 50; 10]);
             ([97; 95; 114; 48; 48; 48; 48; 50; 46; 108; 111; 103], 0, [66; 50; 10; 65; 51; 10])] None [].
Proof. vm_compute. reflexivity. Qed.
(* Timestamps: all rotations in the same second 2001-09-09_02-46-40: a_r<ts>, a_r<ts>.restart-0000, a_rCURRENT *)
Example ex_async_timestamps :
  snapshot (s_w (async_conc (exm NTimestamps true) 1000000000 3600 ex_threads ex_sched))
  = ObsSnap [([97; 95; 114; 50; 48; 48; 49; 45; 48; 57; 45; 48; 57; 95; 48; 50; 45; 52; 54; 45; 52; 48; 46; 108; 111; 103], 0,
              [66; 49; 10; 65; 49; 10]);
             ([97; 95; 114; 50; 48; 48; 49; 45; 48; 57; 45; 48; 57; 95; 48; 50; 45; 52; 54; 45; 52; 48; 46; 114; 101; 115; 116; 97;
               114; 116; 45; 48; 48; 48; 48; 46; 108; 111; 103], 0, [67; 49; 10; 65; 50; 10]);
             ([97; 95; 114; 67; 85; 82; 82; 69; 78; 84; 46; 108; 111; 103], 0, [66; 50; 10; 65; 51; 10])] None [].
Proof. vm_compute. reflexivity. Qed.
Example ex_async_timestampsdirect :
  snapshot (s_w (async_conc (exm NTimestampsDirect true) 1000000000 3600 ex_threads ex_sched))
  = ObsSnap [([97; 95; 114; 50; 48; 48; 49; 45; 48; 57; 45; 48; 57; 95; 48; 50; 45; 52; 54; 45; 52; 48; 46; 108; 111; 103], 0,
              [66; 49; 10; 65; 49; 10]);
             ([97; 95; 114; 50; 48; 48; 49; 45; 48; 57; 45; 48; 57; 95; 48; 50; 45; 52; 54; 45; 52; 48; 46; 114; 101; 115; 116; 97;
               114; 116; 45; 48; 48; 48; 48; 46; 108; 111; 103], 0, [67; 49; 10; 65; 50; 10]);
             ([97; 95; 114; 50; 48; 48; 49; 45; 48; 57; 45; 48; 57; 95; 48; 50; 45; 52; 54; 45; 52; 48; 46; 114; 101; 115; 116; 97;
               114; 116; 45; 48; 48; 48; 49; 46; 108; 111; 103], 0, [66; 50; 10; 65; 51; 10])] None [].
Proof. vm_compute. reflexivity. Qed.
(* the synchronous writers with the lock order B A C (idle) A B A A: the same interleaving, the same directories *)
Definition ex_lock : list nat := [1; 0; 3; 2; 0; 1; 0; 0]%nat.
Example ex_sync_same :
  locked ex_threads ex_lock = (ex_m, [[]; []; []; []])
  /\ snapshot (s_w (sync_conc (exm NNumbers false) 1000000000 3600 ex_threads ex_lock))
     = snapshot (s_w (async_conc (exm NNumbers true) 1000000000 3600 ex_threads ex_sched))
  /\ snapshot (s_w (sync_conc (exm NNumbersDirect false) 1000000000 3600 ex_threads ex_lock))
     = snapshot (s_w (async_conc (exm NNumbersDirect true) 1000000000 3600 ex_threads ex_sched))
  /\ snapshot (s_w (sync_conc (exm NTimestamps false) 1000000000 3600 ex_threads ex_lock))
     = snapshot (s_w (async_conc (exm NTimestamps true) 1000000000 3600 ex_threads ex_sched))
  /\ snapshot (s_w (sync_conc (exm NTimestampsDirect false) 1000000000 3600 ex_threads ex_lock))
     = snapshot (s_w (async_conc (exm NTimestampsDirect true) 1000000000 3600 ex_threads ex_sched)).
Proof.
  split; [vm_compute; reflexivity|]. split; [vm_compute; reflexivity|]. split; [vm_compute; reflexivity|].
  split; vm_compute; reflexivity.
Qed.
(* merge_check is only a sound test, not a complete one: with equal lines in different threads the greedy choice of
   the first thread can reject an interleaving (thread 2 sends a, c, then thread 1 sends a, b) *)
Example ex_merge_check_incomplete :
  sent [[[1]; [2]]; [[1]; [3]]] [ESend 1; ESend 1; ESend 0; ESend 0]%nat = ([[1]; [3]; [1]; [2]], [[]; []])
  /\ merge_check [[[1]; [2]]; [[1]; [3]]] [[1]; [3]; [1]; [2]] = false.
Proof. split; vm_compute; reflexivity. Qed.
End Examples.

Print Assumptions async_schedule_run.
Print Assumptions async_merge_numbers.
Print Assumptions async_merge_numbersdirect.
Print Assumptions async_merge_timestampsdirect.
Print Assumptions async_merge_timestamps.
Print Assumptions sync_merge_numbers.
Print Assumptions sync_merge_numbersdirect.
Print Assumptions sync_merge_timestampsdirect.
Print Assumptions sync_merge_timestamps.
