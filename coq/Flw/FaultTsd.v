(* C19 with rotation, TimestampsDirect naming: the model does what the specification FaultTsdSpec.simt says - for EVERY
   fault oracle and EVERY list of records with clock advances (TimestampsDirect naming, size criterion, direct mode, no
   cleanup, synchronous, no symlink, no start-time part in the name; both with and without append, use_utc either way;
   empty records included).
   The first part is general: Section Refine (frun_gen), for any specification with a clock - an invariant that the tick
   and the log call of one record keep gives the statement for the run; FaultTs.v uses it. *)
Require Import FL.Base.Bytes FL.Fs.Fs FL.Time.TsFormat FL.Names.FileSpec FL.Flw.Model FL.Flw.ModelFacts FL.Flw.NumFs FL.Flw.NumInv
  FL.Flw.Run FL.Flw.NumRun FL.Flw.NumListing FL.Flw.NumRestart FL.Flw.TsTime FL.Flw.TsNames FL.Flw.TsInv FL.Flw.TsRun
  FL.Flw.TsTheorems FL.Flw.TsdInv FL.Flw.TsdRun FL.Flw.TsdTheorems FL.Flw.TsdRestartInv FL.Flw.FaultFacts FL.Flw.FaultRotSpec
  FL.Flw.FaultRotation FL.Flw.FaultTsdSpec FL.Oracles.ReaderOrder FL.Flw.TsReader FL.Flw.SnapFacts.
From Coq Require Import ZifyN ZifyNat ZifyBool.
Open Scope nat_scope.

Lemma with_listing_quiet_inv {A} q (g : world -> option A) a w' : quiet q -> with_listing q g = (Ok a, w') -> g q = Some a.
Proof.
  intros Q. unfold with_listing. rewrite tick_quiet by exact Q. destruct (g q) as [x|]; [|discriminate].
  intros E. injection E as -> _. reflexivity.
Qed.

Lemma eoff_woff c q q' : woff q' = woff q -> eoff c q' = eoff c q.
Proof. intros H. unfold eoff. rewrite H. reflexivity. Qed.
Lemma reported_eoff c q q' e : reported q q' e -> eoff c q' = eoff c q.
Proof. intros [_ [_ [H _]]]. exact (eoff_woff c q q' H). Qed.

(* Inv x st errs fl now n relates the system x to the state st of a specification (sstep, sim): errs have been reported, the
   oracle is fl, the clock shows now, n bounds the number of files.  When the tick and the log call of one record keep it,
   the run of a list of records does what sim says, and every call returns normally. *)
Section Refine.
Variables (St : Type) (sstep : Z -> St -> list bool -> Z * bytes -> St * list ecode * list bool).
Variable sim : Z -> St -> list bool -> list (Z * bytes) -> St * list ecode * list bool.
Hypothesis sim_nil : forall now st fl, sim now st fl [] = (st, [], fl).
Hypothesis sim_cons : forall now st fl r rest, sim now st fl (r :: rest) =
  let '(st1, e1, fl1) := sstep now st fl r in
  let '(st2, e2, fl2) := sim (now + fst r) st1 fl1 rest in (st2, e1 ++ e2, fl2).
Variables (Inv : sys -> St -> list ecode -> list bool -> Z -> nat -> Prop) (hi : Z).
Hypothesis tick_step : forall x st errs fl now n dt, Inv x st errs fl now n -> (0 <= dt)%Z ->
  exists x', step x (OTick dt) = (x', ObsRes 0 false) /\ Inv x' st errs fl (now + dt) n.
Hypothesis write_step : forall x st errs fl now n r, Inv x st errs fl (now + fst r) n ->
  (now + fst r <= hi)%Z -> (N.of_nat (S n) <= usize_max)%N ->
  let '(st', e', fl') := sstep now st fl r in
  exists x' rot, step x (OWrite (snd r)) = (x', ObsRes 0 rot) /\ Inv x' st' (errs ++ e') fl' (now + fst r) (S n).

Theorem frun_gen : forall recs x st errs fl now n, Inv x st errs fl now n ->
  ticks_ok recs -> (now + telapsed recs <= hi)%Z -> (N.of_nat (n + length recs) <= usize_max)%N ->
  let '(st', e', fl') := sim now st fl recs in
  exists x' obs, run x (tops recs) = (x', obs) /\ Inv x' st' (errs ++ e') fl' (now + telapsed recs) (n + length recs)
    /\ Forall obs_normal obs.
Proof.
  induction recs as [|r rest IH]; intros x st errs fl now n I Ht Hhi Hmax; cbn [telapsed length].
  - rewrite sim_nil. exists x, []. rewrite app_nil_r, Z.add_0_r, Nat.add_0_r. split; [reflexivity|]. split; [exact I | constructor].
  - rewrite sim_cons. inversion Ht as [|r' rest' Hr Hrest]; subst. pose proof (telapsed_nonneg rest Hrest) as Hnn.
    cbn [telapsed length] in Hhi, Hmax.
    destruct (tick_step x st errs fl now n (fst r) I Hr) as [x1 [S1 I1]].
    pose proof (write_step x1 st errs fl now n r I1 ltac:(lia) ltac:(lia)) as S.
    destruct (sstep now st fl r) as [[st1 e1] fl1]. destruct S as [x2 [rot [S2 I2]]].
    specialize (IH x2 st1 (errs ++ e1) fl1 (now + fst r)%Z (S n) I2 Hrest ltac:(lia) ltac:(lia)).
    destruct (sim (now + fst r) st1 fl1 rest) as [[st2 e2] fl2]. destruct IH as [x3 [obs [R [I3 O]]]].
    exists x3, (ObsRes 0 false :: ObsRes 0 rot :: obs).
    change (tops (r :: rest)) with (OTick (fst r) :: OWrite (snd r) :: tops rest). cbn [run]. rewrite S1, S2, R.
    split; [reflexivity|]. split.
    + rewrite app_assoc, Z.add_assoc. replace (n + S (length rest)) with (S n + length rest) by lia. exact I3.
    + constructor; [exists false; reflexivity|]. constructor; [exists rot; reflexivity | exact O].
Qed.
End Refine.

Section Tsd.
Variables (c : config) (m : N) (e lo hi : Z).
Hypothesis Hcfg : tsdcfg c (CSize m).
Hypothesis Hcap : c_cap c = None.
Hypothesis Htag : tag_ok c.
Hypothesis Happ : append_ok c.
Hypothesis Hyears : years_ok e lo hi.

(* the state of an initialised writer on the file with the key k; ts: the time stamp of the naming state (never read) *)
Definition actt (ts : Z) (k : key) (cur : N) (wr : writer) : inner :=
  Active (Some (mk_rs (NSTs ts None std_fmt) (RSize m cur))) wr (kname c e k).

(* ---- the rotation check of one write, computed ---- *)
Lemma mount_next_t_fw q fl ts keys closed cur wr :
  TsdInv c e lo q wr keys closed -> wpend wr = [] -> (wnow q <= hi)%Z -> (N.of_nat (length keys) <= usize_max)%N ->
  let k := nth (length closed) keys kd in
  let knew := (wnow q, count (wnow q) keys) in
  let fl1 := snd (pop fl) in let fl2 := snd (pop fl1) in let fl3 := snd (pop fl2) in
  mount_next c (fw q fl) (actt ts k cur wr) false =
    if (m <? cur)%N then
      if fst (pop fl) then (Err, fw q fl1, actt (wnow q) k cur wr)
      else if fst (pop fl1) then (Err, fw q fl2, actt (wnow q) k cur wr)
      else if fst (pop fl2) then (Err, fw q fl3, actt (wnow q) k cur wr)
      else (Ok tt, fw (set_fs q (fst (create_file (wfs q) (kname c e knew) 0%N (wnow q)))) fl3,
            actt (wnow q) knew 0 {| wino := snd (create_file (wfs q) (kname c e knew) 0%N (wnow q)); wpend := []; wcap := c_cap c |})
    else (Ok tt, fw q fl, actt ts k cur wr).
Proof.
  intros I Hp Hhi Hmax k knew fl1 fl2 fl3. pose proof Hcfg as [Hrot [Hts [Hlink _]]].
  pose proof I as [Q W Hnd Hoff Hlen Hc Hcp Hcl Hon Hko Hrg Hwr Hca].
  destruct (tsdinv_years _ _ _ _ _ _ _ _ I Hyears Hhi) as [Ynow Yk].
  unfold mount_next, actt. cbn [mk_rs rs_roll rs_naming rs_cleanup rs_bg orb rotation_necessary]. unfold size_rotation_necessary.
  destruct (m <? cur)%N; [|reflexivity].
  change (wnow (fw q fl)) with (wnow q).
  rewrite collision_free_fw by exact Hts. unfold fl3, fl2, fl1.
  destruct (pop fl) as [f1 r1]. cbn [fst snd]. destruct f1; [reflexivity|].
  destruct (pop r1) as [f2 r2]. cbn [fst snd]. destruct f2; [reflexivity|].
  rewrite infix_from_ts_tsx. change (eoff c (fw q fl)) with (eoff c q). rewrite Hoff.
  rewrite (collision_free_infix_ts c e (woff q) (wfs q) keys (wnow q) (count (wnow q) keys) Htag Ynow Yk (tsdinv_dir _ _ _ _ _ _ _ I)
             (keys_count keys Hko (wnow q))) by (pose proof (count_le_length (wnow q) keys); lia).
  destruct (rotate_tsdinv c e lo hi q wr keys closed I Hyears Hhi) as [Ht _].
  exact (mount_tail_fw c q r2 (Some (infix_of e (wnow q, count (wnow q) keys))) (NSTs (wnow q) None std_fmt) m cur wr _ Q Hts Hlink Hp Ht).
Qed.

(* ---- the invariant of the fault-free development under a change of the environment ---- *)
Lemma tsdinv_env q q' wr keys closed : TsdInv c e lo q wr keys closed ->
  wfs q' = wfs q -> quiet q' -> wnow q' = wnow q -> eoff c q' = e -> TsdInv c e lo q' wr keys closed.
Proof.
  intros [Q W Hnd Hoff Hlen Hc Hcp Hcl Hon Hko Hrg Hwr Hca] F Q' N' E'. constructor; try rewrite F; try assumption.
  rewrite N'. exact Hrg.
Qed.

Lemma tsdinv_append_env q q' wr keys closed x : TsdInv c e lo q wr keys closed ->
  wfs q' = append_ino (wfs q) (wino wr) x -> quiet q' -> wnow q' = wnow q -> eoff c q' = e ->
  TsdInv c e lo q' wr keys closed /\ content (wfs q') (wino wr) = content (wfs q) (wino wr) ++ x.
Proof.
  intros I F Q' N' E'. pose proof (td_quiet _ _ _ _ _ _ _ I) as Q.
  destruct (tsdinv_append c e lo q (set_fs q (append_ino (wfs q) (wino wr) x)) wr wr keys closed x I eq_refl
              (same_env_set_fs q _ Q) eq_refl eq_refl (td_wr _ _ _ _ _ _ _ I)) as [I2 C2].
  split; [apply (tsdinv_env _ q' _ _ _ I2); [rewrite F; reflexivity | exact Q' | rewrite N'; reflexivity | exact E']|].
  rewrite F. exact C2.
Qed.

(* ------------------------------------------------------------------ the invariant of the run *)
(* the directory while the writer is not initialised: empty, or the one empty file (t0, 0) (append; as the file of a
   writer wr0 that does not exist any more) *)
Definition InitDir (q : world) (created : option Z) : Prop :=
  match created with
  | None => names (wfs q) = [] /\ inodes (wfs q) = []
  | Some t0 => c_append c = true /\ exists wr0, TsdInv c e lo q wr0 [(t0, 0)] [] /\ wpend wr0 = [] /\ cur_view q wr0 = []
  end.

(* n bounds the number of files *)
Definition TFInv (x : sys) (st : tst) (errs : list ecode) (fl : list bool) (now : Z) (n : nat) : Prop :=
  exists q, s_w x = fw q fl /\ quiet q /\ wacts q = 0 /\ werrs q = errs /\ s_tl x = [] /\ wnow q = now /\ eoff c q = e /\ (lo <= now)%Z /\
  match st with
  | TInit created => s_flw x = Some (flw_of c Initial) /\ InitDir q created
  | TAct keys closed d =>
    exists wr ts, s_flw x = Some (flw_of c (actt ts (nth (length closed) keys kd) (N.of_nat (length d)) wr))
      /\ TsdInv c e lo q wr keys closed /\ wpend wr = [] /\ cur_view q wr = d /\ length closed <= n
      /\ (ts = fst (nth (length closed) keys kd) \/ (m <? N.of_nat (length d))%N = true)
  end.

(* the rotation check has been made (result r1, world q1, oracle fl1, writer wr1 on the file of the last key, which
   holds d1): the write *)
Lemma tail_step_t x q fl ts k cur wr r1 q1 fl1 keys1 closed1 d1 ts1 wr1 errs1 b n1 :
  s_w x = fw q fl -> s_tl x = [] -> s_flw x = Some (flw_of c (actt ts k cur wr)) ->
  mount_next c (fw q fl) (actt ts k cur wr) false
    = (r1, fw q1 fl1, actt ts1 (nth (length closed1) keys1 kd) (N.of_nat (length d1)) wr1) ->
  r1 <> Panic -> wacts q1 = 0 -> werrs q1 = errs1 -> TsdInv c e lo q1 wr1 keys1 closed1 -> wpend wr1 = [] ->
  cur_view q1 wr1 = d1 -> length closed1 <= n1 ->
  (ts1 = fst (nth (length closed1) keys1 kd) \/ (m <? N.of_nat (length d1))%N = true) ->
  let '(d', e', fl2) := s_write d1 b fl1 in
  exists x' rot, step x (OWrite b) = (x', ObsRes 0 rot)
    /\ TFInv x' (TAct keys1 closed1 d') (errs1 ++ (match r1 with Err => [ELogFile] | _ => [] end) ++ e') fl2 (wnow q1) n1.
Proof.
  intros Ew Ht Es M Hr Ha1 He1 A1 Hp1 V1 Hn1 Hts1. pose proof (td_quiet _ _ _ _ _ _ _ A1) as Q1.
  assert (Hc1 : wcap wr1 = None) by (rewrite (td_cap _ _ _ _ _ _ _ A1); exact Hcap).
  unfold actt in M.
  destruct (wb_active_rs c m q fl KNever false _ _ cur wr r1 q1 fl1 _ _ _ wr1 b M Hr Q1 Hc1) as [q3 [E [R3 F3]]].
  fold (actt ts k cur wr) in E.
  unfold s_write. destruct (wr_pop b fl1) as [f fl2]. cbn [fst snd] in *.
  rewrite <- Ew in E. destruct Hcfg as [_ [Hts [_ Hsy]]]. pose proof (step_write_sync x _ b _ _ _ _ Es eq_refl Hts Hsy Ht E) as S.
  pose proof (tsdinv_now _ _ _ _ _ _ _ A1) as Hlo1.
  destruct f.
  - (* the write fails: reported by the handle *)
    eexists _, _. split; [apply S; discriminate|].
    destruct (report_reported EWrite q3 (proj1 R3)) as [R4 F4].
    pose proof (reported_trans _ _ _ _ _ R3 R4) as R.
    exists (report EWrite q3). cbn [s_w s_tl s_flw].
    split; [apply report_fw; apply R3|]. split; [apply R|]. split; [exact (reported_acts _ _ _ R Ha1)|].
    split; [rewrite (reported_errs _ _ _ _ R He1); reflexivity|]. split; [reflexivity|].
    split; [exact (reported_now _ _ _ R)|]. split; [rewrite (reported_eoff c _ _ _ R); apply A1|]. split; [exact Hlo1|].
    exists wr1, ts1. split; [reflexivity|].
    assert (I3 : TsdInv c e lo (report EWrite q3) wr1 keys1 closed1).
    { apply (tsdinv_env q1); [exact A1 | rewrite F4; exact F3 | apply R | exact (reported_now _ _ _ R) | rewrite (reported_eoff c _ _ _ R); apply A1]. }
    split; [exact I3|]. split; [exact Hp1|]. split; [|split; [exact Hn1 | exact Hts1]].
    unfold cur_view in *. rewrite F4, F3. exact V1.
  - eexists _, _. split; [apply S; discriminate|].
    exists q3. cbn [s_w s_tl s_flw].
    split; [reflexivity|]. split; [apply R3|]. split; [exact (reported_acts _ _ _ R3 Ha1)|].
    split; [rewrite (reported_errs _ _ _ _ R3 He1), app_nil_r; reflexivity|]. split; [reflexivity|].
    split; [exact (reported_now _ _ _ R3)|]. split; [rewrite (reported_eoff c _ _ _ R3); apply A1|]. split; [exact Hlo1|].
    exists wr1, ts1. split; [rewrite app_length, Nat2N.inj_add; reflexivity|].
    destruct (tsdinv_append_env q1 q3 wr1 keys1 closed1 b A1 F3 (proj1 R3) (reported_now _ _ _ R3)) as [I3 C3];
      [rewrite (reported_eoff c _ _ _ R3); apply A1|].
    split; [exact I3|]. split; [exact Hp1|]. split; [|split; [exact Hn1|]].
    + unfold cur_view in *. rewrite C3, Hp1, !app_nil_r in *. rewrite V1. reflexivity.
    + destruct Hts1 as [Hl|Hr']; [left; exact Hl | right]. rewrite app_length. apply N.ltb_lt in Hr'. apply N.ltb_lt. lia.
Qed.

(* one record on an initialised writer *)
Lemma active_step_t x q fl errs ts keys closed d wr b n :
  s_w x = fw q fl -> wacts q = 0 -> werrs q = errs -> s_tl x = [] ->
  s_flw x = Some (flw_of c (actt ts (nth (length closed) keys kd) (N.of_nat (length d)) wr)) ->
  TsdInv c e lo q wr keys closed -> wpend wr = [] -> cur_view q wr = d -> length closed <= n ->
  (ts = fst (nth (length closed) keys kd) \/ (m <? N.of_nat (length d))%N = true) ->
  (wnow q <= hi)%Z -> (N.of_nat (S n) <= usize_max)%N ->
  let '(st', e', fl') := t_active m (wnow q) keys closed d b fl in
  exists x' rot, step x (OWrite b) = (x', ObsRes 0 rot) /\ TFInv x' st' (errs ++ e') fl' (wnow q) (S n).
Proof.
  intros Ew Ha He Ht Es A Hp V Hn Hts0 Hhi Hmax. pose proof (td_quiet _ _ _ _ _ _ _ A) as Q.
  assert (Hmax' : (N.of_nat (length keys) <= usize_max)%N) by (rewrite (td_len _ _ _ _ _ _ _ A); lia).
  pose proof (mount_next_t_fw q fl ts keys closed (N.of_nat (length d)) wr A Hp Hhi Hmax') as M. cbv zeta in M.
  set (k := nth (length closed) keys kd) in *.
  set (knew := (wnow q, count (wnow q) keys)) in *.
  assert (Hn' : length closed <= S n) by lia.
  (* a failing step of the rotation: the record goes into the old file *)
  assert (Stay : forall fl0, (m <? N.of_nat (length d))%N = true ->
                             mount_next c (fw q fl) (actt ts k (N.of_nat (length d)) wr) false
                             = (Err, fw q fl0, actt (wnow q) k (N.of_nat (length d)) wr) ->
            let '(st', e', fl') := (let '(d', e', fl') := s_write d b fl0 in (TAct keys closed d', ELogFile :: e', fl')) in
            exists x' rot, step x (OWrite b) = (x', ObsRes 0 rot) /\ TFInv x' st' (errs ++ e') fl' (wnow q) (S n)).
  { intros fl0 Em M0.
    pose proof (tail_step_t x q fl ts k _ wr Err q fl0 keys closed d (wnow q) wr errs b (S n) Ew Ht Es M0
                  (fun H => ltac:(discriminate H)) Ha He A Hp V Hn' (or_intror Em)) as T0.
    destruct (s_write d b fl0) as [[d' e'] fl2]. exact T0. }
  unfold t_active.
  destruct (m <? N.of_nat (length d))%N eqn:Em.
  - destruct (pop fl) as [f1 fl1]. cbn [fst snd] in M. destruct f1; [exact (Stay fl1 eq_refl M)|].
    destruct (pop fl1) as [f2 fl2]. cbn [fst snd] in M. destruct f2; [exact (Stay fl2 eq_refl M)|].
    destruct (pop fl2) as [f3 fl3]. cbn [fst snd] in M. destruct f3; [exact (Stay fl3 eq_refl M)|].
    (* the rotation is completed *)
    set (q3 := set_fs q (fst (create_file (wfs q) (kname c e knew) 0%N (wnow q)))) in *.
    set (wr3 := {| wino := snd (create_file (wfs q) (kname c e knew) 0%N (wnow q)); wpend := []; wcap := c_cap c |}) in *.
    assert (Q3 : quiet q3) by (apply quiet_set_fs; exact Q).
    destruct (rotate_tsdinv c e lo hi q wr keys closed A Hyears Hhi) as [_ RI]. fold knew in RI.
    assert (F3 : wfs q3 = append_ino (fst (create_file (wfs q) (kname c e knew) 0%N (wnow q))) (wino wr) (wpend wr))
      by (rewrite Hp, append_ino_nil_id; reflexivity).
    destruct (RI q3 Q3 (td_off _ _ _ _ _ _ _ A) eq_refl F3) as [A3 V3]. fold wr3 in A3, V3. rewrite V in A3.
    assert (En : nth (length (closed ++ [d])) (keys ++ [knew]) kd = knew).
    { apply nth_snoc_last. rewrite app_length. cbn [length]. rewrite (td_len _ _ _ _ _ _ _ A). lia. }
    assert (Hts3 : wnow q = fst (nth (length (closed ++ [d])) (keys ++ [knew]) kd) \/ (m <? N.of_nat (length (@nil N)))%N = true)
      by (left; rewrite En; reflexivity).
    rewrite <- En in M. change 0%N with (N.of_nat (length (@nil N))) in M.
    assert (Hn3 : length (closed ++ [d]) <= S n) by (rewrite app_length; cbn [length]; lia).
    pose proof (tail_step_t x q fl ts k _ wr (Ok tt) q3 fl3 (keys ++ [knew]) (closed ++ [d]) [] (wnow q) wr3 errs b (S n) Ew Ht Es M
                  (fun H => ltac:(discriminate H)) Ha He A3 eq_refl V3 Hn3 Hts3) as T0.
    destruct (s_write [] b fl3) as [[d' e'] fl4]. exact T0.
  - assert (Hts1 : ts = fst k \/ false = true) by (destruct Hts0 as [Hl|Hr']; [left; exact Hl | discriminate Hr']).
    pose proof (tail_step_t x q fl ts k _ wr (Ok tt) q fl keys closed d ts wr errs b (S n) Ew Ht Es M
                  (fun H => ltac:(discriminate H)) Ha He A Hp V Hn' ltac:(destruct Hts1 as [Hl|Hr']; [left; exact Hl | discriminate Hr'])) as T0.
    destruct (s_write d b fl) as [[d' e'] fl1]. exact T0.
Qed.

(* ------------------------------------------------------------------ the initialisation *)
Lemma tsdinv_first q2 f t born : quiet q2 -> names f = [] -> inodes f = [] ->
  wfs q2 = fst (create_file f (kname c e (t, 0)) 0%N born) -> eoff c q2 = e -> (lo <= t <= wnow q2)%Z ->
  TsdInv c e lo q2 {| wino := 0; wpend := []; wcap := c_cap c |} [(t, 0)] []
  /\ cur_view q2 {| wino := 0; wpend := []; wcap := c_cap c |} = []
  /\ file_of (wfs q2) (kname c e (t, 0)) = Some (fresh_file born).
Proof.
  intros Q Hn Hi F2 Hoff Ht. unfold create_file in F2. cbn [fst] in F2. rewrite Hn, Hi in F2. cbn [length app] in F2.
  set (k0 := (t, 0)) in *. destruct (one_file_fs (kname c e k0) (fresh_file born)) as [W [Nd [Lc On]]]. unfold fresh_file in W, Nd, Lc, On. rewrite <- F2 in W, Nd, Lc, On.
  split; [|split].
  - constructor; cbn [length nth wino wpend wcap].
    + exact Q.
    + exact W.
    + exact Nd.
    + exact Hoff.
    + reflexivity.
    + exact Lc.
    + rewrite F2. split; reflexivity.
    + intros i Hi'. lia.
    + intros n j L. exists 0. split; [lia | exact (On n j L)].
    + apply keys_ok_one.
    + intros k [<-|[]]. unfold k0. cbn [fst]. exact Ht.
    + apply wr_ok_nil.
    + reflexivity.
  - unfold cur_view, content, inode. rewrite F2. reflexivity.
  - unfold file_of. rewrite Lc, F2. reflexivity.
Qed.

(* the name part of the initialisation: the time stamp of the first file and its infix *)
Lemma naming_t_fw q fl created :
  quiet q -> eoff c q = e -> (wnow q <= hi)%Z -> InitDir q created ->
  init_naming c (fw q fl) NTimestampsDirect =
    match npops (if c_append c then 3 else 2) fl with
    | (Some _, fl') => (Err, fw q fl')
    | (None, fl') => (Ok (NSTs (t_first (wnow q) created) None std_fmt, infix_of e (t_first (wnow q) created, 0)), fw q fl')
    end.
Proof.
  intros Q Hoff Hhi D. pose proof Hcfg as [Hrot [Hts [Hlink _]]].
  unfold init_naming. destruct created as [t0|]; cbn [InitDir t_first] in *.
  - (* the empty file (t0, 0) is there: found as the latest, continued *)
    destruct D as [Ha [wr0 [I0 [Hp0 V0]]]]. rewrite Ha. cbn [negb npops].
    pose proof (latest_ts_tsd c (CSize m) e lo hi q wr0 [(t0, 0)] [] Hcfg (Happ Ha) Hyears I0 Hhi) as L. cbn [length nth fst] in L.
    unfold latest_timestamp_file in L |- *.
    match type of L with with_listing _ ?g = _ => set (G := g) in * end.
    rewrite with_listing_fw. destruct (pop fl) as [f0 fl0]. cbn [fst snd]. destruct f0; [reflexivity|].
    (* without a start-time part the name does not depend on the world: comparing the two start-time texts is slow *)
    assert (EG : G (fw q fl0) = G q) by (unfold G; rewrite !(fixed_of_fixed0 c _ Hts); reflexivity).
    rewrite EG, (with_listing_quiet_inv q G t0 q Q L). cbn [bind].
    rewrite collision_free_fw by exact Hts.
    destruct (pop fl0) as [f1 fl1]. cbn [fst snd]. destruct f1; [reflexivity|].
    destruct (pop fl1) as [f2 fl2]. cbn [fst snd]. destruct f2; [reflexivity|].
    rewrite infix_from_ts_tsx. change (eoff c (fw q fl0)) with (eoff c q). rewrite Hoff.
    pose proof (td_range _ _ _ _ _ _ _ I0 (t0, 0) (or_introl eq_refl)) as Rg. cbn [fst] in Rg.
    assert (Y0 : in_years e t0) by (apply (years_in e lo hi); [exact Hyears | lia]).
    assert (Yk : forall k, In k [(t0, 0)] -> in_years e (fst k)) by (intros k [<-|[]]; exact Y0).
    assert (C1 : count t0 [(t0, 0)] = 1) by (rewrite count_one; cbn [fst]; rewrite Z.eqb_refl; reflexivity).
    pose proof (keys_count [(t0, 0)] (keys_ok_one t0) t0) as KC. rewrite C1 in KC.
    rewrite (collision_free_infix_ts c e (woff q) (wfs q) [(t0, 0)] t0 1 Htag Y0 Yk (tsdinv_dir _ _ _ _ _ _ _ I0) KC)
      by (change (N.of_nat 1) with 1%N; unfold usize_max; lia).
    cbn [bind]. rewrite (newest_of_next_kname e t0 0) by apply N.le_0_l.
    rewrite (name_of_fixed c (fw q fl2)) by assumption.
    change (as_name (c_spec c) (fixed0 c) (Some (infix_of e (t0, 0)))) with (kname c e (t0, 0)).
    change (wfs (fw q fl2)) with (wfs q).
    pose proof (td_cur _ _ _ _ _ _ _ I0) as Lc. cbn [length nth] in Lc. rewrite Lc. reflexivity.
  - destruct D as [Hn Hi].
    destruct (c_append c) eqn:Ha; cbn [negb npops].
    + (* append, empty directory: nothing is listed, the clock is read *)
      unfold latest_timestamp_file. rewrite with_listing_fw.
      destruct (pop fl) as [f0 fl0]. cbn [fst snd]. destruct f0; [reflexivity|].
      rewrite related_files_empty by exact Hn. cbn [filter_files filter_opt map_opt List.map filter_some max_z].
      change (wnow (fw q fl0)) with (wnow q). cbn [bind].
      rewrite collision_free_fw by exact Hts.
      destruct (pop fl0) as [f1 fl1]. cbn [fst snd]. destruct f1; [reflexivity|].
      destruct (pop fl1) as [f2 fl2]. cbn [fst snd]. destruct f2; [reflexivity|].
      rewrite collision_free_infix_empty by exact Hn. cbn [bind]. rewrite newest_of_next_same.
      rewrite infix_from_ts_tsx. change (eoff c (fw q fl0)) with (eoff c q). rewrite Hoff. reflexivity.
    + unfold latest_timestamp_file. cbn [bind]. change (wnow (fw q fl)) with (wnow q).
      rewrite collision_free_fw by exact Hts.
      destruct (pop fl) as [f1 fl1]. cbn [fst snd]. destruct f1; [reflexivity|].
      destruct (pop fl1) as [f2 fl2]. cbn [fst snd]. destruct f2; [reflexivity|].
      rewrite collision_free_infix_empty by exact Hn. cbn [bind].
      rewrite infix_from_ts_tsx. change (eoff c (fw q fl)) with (eoff c q). rewrite Hoff. reflexivity.
Qed.

(* the open/create of the first file by a writer that is being initialised *)
Lemma open_init_t q fl created :
  quiet q -> eoff c q = e -> (lo <= wnow q)%Z -> InitDir q created ->
  let t := t_first (wnow q) created in
  exists f2 ino fil,
    open_log_file c (fw q fl) (Some (infix_of e (t, 0)))
    = (if fst (pop fl) then (Err, fw q (snd (pop fl)))
       else (Ok ({| wino := ino; wpend := []; wcap := c_cap c |}, kname c e (t, 0)), fw (set_fs q f2) (snd (pop fl))))
    /\ TsdInv c e lo (set_fs q f2) {| wino := ino; wpend := []; wcap := c_cap c |} [(t, 0)] []
    /\ cur_view (set_fs q f2) {| wino := ino; wpend := []; wcap := c_cap c |} = []
    /\ file_of f2 (kname c e (t, 0)) = Some fil /\ fdata fil = [].
Proof.
  intros Q Hoff Hlo D t. destruct Hcfg as [Hrot [Hts [Hlink _]]].
  destruct created as [t0|]; cbn [InitDir t_first] in *; unfold t in *; clear t.
  - destruct D as [Ha [wr0 [I0 [Hp0 V0]]]].
    unfold open_log_file. rewrite (name_of_fixed c (fw q fl)) by assumption.
    change (as_name (c_spec c) (fixed0 c) (Some (infix_of e (t0, 0)))) with (kname c e (t0, 0)).
    unfold do_symlink. rewrite Hlink. rewrite p_open_fw by exact Q.
    pose proof (td_cur _ _ _ _ _ _ _ I0) as Lc. cbn [length nth] in Lc.
    pose proof (td_curplain _ _ _ _ _ _ _ I0) as [_ Pd].
    assert (Ewr : {| wino := wino wr0; wpend := []; wcap := c_cap c |} = wr0).
    { pose proof (td_cap _ _ _ _ _ _ _ I0) as Hc0. destruct wr0 as [i p k]. cbn [wino wpend wcap] in *. subst. reflexivity. }
    exists (wfs q), (wino wr0), (inode (wfs q) (wino wr0)).
    split.
    { unfold file_of. rewrite Lc, Pd, Ha. unfold open_append. rewrite Lc. cbn [fst snd]. destruct (fst (pop fl)); reflexivity. }
    rewrite Ewr.
    split; [apply (tsdinv_env q); [exact I0 | reflexivity | apply quiet_set_fs; exact Q | reflexivity | exact Hoff]|].
    split; [exact V0|]. split; [unfold file_of; rewrite Lc; reflexivity|].
    unfold cur_view in V0. rewrite Hp0, app_nil_r in V0. exact V0.
  - destruct D as [Hn Hi].
    pose proof (lookup_empty (wfs q) (kname c e (wnow q, 0)) Hn) as Lc.
    rewrite (open_log_file_fresh_fw c q fl (Some (infix_of e (wnow q, 0))) Q Hts Hlink Lc). cbv zeta.
    change (as_name (c_spec c) (fixed0 c) (Some (infix_of e (wnow q, 0)))) with (kname c e (wnow q, 0)).
    set (q2 := set_fs q (fst (create_file (wfs q) (kname c e (wnow q, 0)) 0%N (wnow q)))).
    assert (Q2 : quiet q2) by (apply quiet_set_fs; exact Q).
    destruct (tsdinv_first q2 (wfs q) (wnow q) (wnow q) Q2 Hn Hi eq_refl Hoff) as [I2 [V2 Fo]]; [cbn [q2 set_fs wnow]; lia|].
    exists (fst (create_file (wfs q) (kname c e (wnow q, 0)) 0%N (wnow q))), 0, (fresh_file (wnow q)).
    assert (Esnd : snd (create_file (wfs q) (kname c e (wnow q, 0)) 0%N (wnow q)) = 0)
      by (unfold create_file; cbn [snd]; rewrite Hi; reflexivity).
    split. { rewrite Esnd. destruct (fst (pop fl)); reflexivity. }
    split; [exact I2|]. split; [exact V2|]. split; [exact Fo | reflexivity].
Qed.

Lemma initialize_t_fw q fl created :
  quiet q -> eoff c q = e -> (lo <= wnow q <= hi)%Z -> InitDir q created ->
  let t := t_first (wnow q) created in
  match t_init_pops (c_append c) fl with
  | (Some k, fl') =>
    exists q', initialize c (fw q fl) = (Err, fw q' fl') /\ same_env q q'
      /\ InitDir q' (if k then Some t else created)
  | (None, fl') =>
    exists q' wr, initialize c (fw q fl) = (Ok (actt t (t, 0) 0 wr), fw q' fl') /\ same_env q q'
      /\ TsdInv c e lo q' wr [(t, 0)] [] /\ wpend wr = [] /\ cur_view q' wr = []
  end.
Proof.
  intros Q Hoff [Hlo Hhi] D t. pose proof Hcfg as [Hrot [Hts [Hlink _]]].
  assert (Fail : forall fl', exists q', (Err : res inner, fw q fl') = (Err, fw q' fl') /\ same_env q q' /\ InitDir q' created).
  { intros fl'. exists q. split; [reflexivity|]. split; [apply same_env_refl; exact Q | exact D]. }
  unfold initialize. rewrite Hrot. rewrite (naming_t_fw q fl created Q Hoff Hhi D). fold t.
  unfold t_init_pops, init_pops. rewrite npops_app.
  destruct (npops (if c_append c then 3 else 2) fl) as [[j|] fl2]; [cbn [bind]; apply Fail|].
  cbn [bind npops].
  destruct (open_init_t q fl2 created Q Hoff Hlo D) as [f2 [ino [fil [Eop [I2 [V2 [Fo Fd]]]]]]]. fold t in Eop, I2, V2, Fo.
  rewrite Eop. destruct (pop fl2) as [f3 fl3]. cbn [fst snd]. destruct f3; [cbn [bind]; apply Fail|]. cbn [bind].
  set (q2 := set_fs q f2) in *. assert (Q2 : quiet q2) by (apply quiet_set_fs; exact Q).
  rewrite (roll_new_fw q2 fl3 m (c_append c) _ fil Fo Fd).
  destruct (if c_append c then pop fl3 else (false, fl3)) as [f4 fl4] eqn:E4. destruct f4; cbn [bind].
  - (* the metadata call fails: the file has been created *)
    exists q2. split; [reflexivity|]. split; [apply same_env_set_fs; exact Q|].
    cbn [InitDir]. split; [destruct (c_append c); [reflexivity | discriminate E4]|].
    exists {| wino := ino; wpend := []; wcap := c_cap c |}. auto.
  - exists q2, {| wino := ino; wpend := []; wcap := c_cap c |}. split; [reflexivity|]. split; [apply same_env_set_fs; exact Q|].
    auto.
Qed.

(* one record on a writer that is not initialised *)
Lemma init_step_t x created errs fl b now n : TFInv x (TInit created) errs fl now n ->
  (now <= hi)%Z -> (N.of_nat (S n) <= usize_max)%N ->
  let '(st', e', fl') := t_init (c_append c) m now created b fl in
  exists x' rot, step x (OWrite b) = (x', ObsRes 0 rot) /\ TFInv x' st' (errs ++ e') fl' now (S n).
Proof.
  intros [q [Ew [Q [Ha [He [Ht [Hnow [Hoff [Hlo [Es D]]]]]]]]]] Hhi Hmax. rewrite t_init_alt. pose proof Hcfg as [_ [Hts [_ Hsy]]].
  assert (Hr : (lo <= wnow q <= hi)%Z) by lia.
  pose proof (initialize_t_fw q fl created Q Hoff Hr D) as IF. cbv zeta in IF. rewrite Hnow in IF.
  destruct (t_init_pops (c_append c) fl) as [[k|] fl'].
  - (* the initialisation fails: the record is lost, the handle reports it, the writer stays uninitialised *)
    destruct IF as [q' [Ei [S D']]].
    assert (E : write_buffer (flw_of c Initial) (s_w x) b = (Err, fw q' fl', flw_of c Initial, false)).
    { rewrite Ew. unfold write_buffer. cbn [flw_of f_cfg f_inner]. rewrite Ei. reflexivity. }
    eexists _, _. split; [apply (step_write_sync x _ b Err _ _ false Es eq_refl Hts Hsy Ht E); discriminate|].
    destruct (report_reported EWrite q' (proj1 S)) as [R4 F4].
    pose proof (reported_trans _ _ _ _ _ (same_env_reported _ _ S) R4) as RR. cbn [app] in RR.
    exists (report EWrite q'). cbn [s_w s_tl s_flw].
    split; [apply report_fw; apply S|]. split; [apply R4|]. split; [exact (reported_acts _ _ _ RR Ha)|].
    split; [exact (reported_errs _ _ _ _ RR He)|]. split; [reflexivity|].
    split; [rewrite (reported_now _ _ _ RR); exact Hnow|]. split; [rewrite (reported_eoff c _ _ _ RR); exact Hoff|]. split; [exact Hlo|].
    split; [reflexivity|].
    (* the directory is that of q' *)
    assert (N4 : wnow (report EWrite q') = wnow q') by exact (reported_now _ _ _ R4).
    assert (E4 : eoff c (report EWrite q') = e) by (rewrite (reported_eoff c _ _ _ RR); exact Hoff).
    destruct (if k then Some (t_first now created) else created) as [t1|]; cbn [InitDir] in *.
    + destruct D' as [Ha' [wr0 [I0 [Hp0 V0]]]]. split; [exact Ha'|]. exists wr0.
      split; [apply (tsdinv_env q'); [exact I0 | exact F4 | apply R4 | exact N4 | exact E4]|]. split; [exact Hp0|].
      unfold cur_view in *. rewrite F4. exact V0.
    + rewrite F4. exact D'.
  - destruct IF as [q' [wr [Ei [S [A [Hp V]]]]]].
    set (t := t_first now created) in *.
    set (x1 := {| s_flw := Some (flw_of c (actt t (t, 0) 0 wr)); s_w := fw q' fl'; s_tl := []; s_dead := s_dead x |}).
    assert (E : step x (OWrite b) = step x1 (OWrite b)).
    { apply (step_write_same x x1 _ _ b Es eq_refl eq_refl eq_refl eq_refl Hts Hsy Ht eq_refl eq_refl). rewrite Ew. cbn [x1 s_w].
      exact (write_buffer_init c (fw q fl) b _ wr (kname c e (t, 0)) (fw q' fl') Ei). }
    rewrite E.
    assert (Nq' : wnow q' = now) by (destruct S as [_ [H _]]; congruence).
    pose proof (active_step_t x1 q' fl' errs t [(t, 0)] [] [] wr b n eq_refl) as AS. rewrite Nq' in AS.
    apply AS.
    + exact (same_env_acts _ _ S Ha).
    + destruct S as [_ [_ [_ [H _]]]]. congruence.
    + reflexivity.
    + reflexivity.
    + exact A.
    + exact Hp.
    + exact V.
    + cbn [length]. lia.
    + left. reflexivity.
    + exact Hhi.
    + exact Hmax.
Qed.

(* the clock advances *)
Lemma tick_step_t x st errs fl now n dt : TFInv x st errs fl now n -> (0 <= dt)%Z ->
  exists x', step x (OTick dt) = (x', ObsRes 0 false) /\ TFInv x' st errs fl (now + dt) n.
Proof.
  intros [q [Ew [Q [Ha [He [Ht [Hnow [Hoff [Hlo I]]]]]]]]] Hdt. destruct Hcfg as [_ [Hts [_ Has]]].
  assert (Es : exists s, s_flw x = Some s /\ f_cfg s = c).
  { destruct st as [created|keys closed d]; [destruct I as [Es _] | destruct I as [wr [ts [Es _]]]]; rewrite Es; eexists; split; reflexivity. }
  destruct Es as [s [Es Ec]].
  rewrite (step_sync_cfg x (OTick dt) s Es) by (rewrite Ec; assumption). cbn [sync_step].
  eexists. split; [reflexivity|].
  exists (set_now q (wnow q + dt)%Z). cbn [s_w s_tl s_flw]. rewrite Ew.
  split; [reflexivity|]. split; [exact Q|]. split; [exact Ha|]. split; [exact He|]. split; [exact Ht|].
  split; [cbn [set_now wnow]; rewrite Hnow; reflexivity|]. split; [exact Hoff|]. split; [lia|].
  destruct st as [created|keys closed d].
  - destruct I as [Es' D]. split; [exact Es'|]. destruct created as [t0|]; cbn [InitDir] in *; [|exact D].
    destruct D as [Ha' [wr0 [I0 [Hp0 V0]]]]. split; [exact Ha'|]. exists wr0.
    split; [apply tsdinv_tick; assumption | split; assumption].
  - destruct I as [wr [ts [Es' [A [Hp [V Hn]]]]]]. exists wr, ts. split; [exact Es'|].
    split; [apply tsdinv_tick; assumption|]. split; [exact Hp|]. split; [exact V | exact Hn].
Qed.

Lemma tfinv_mono x st errs fl now n n' : TFInv x st errs fl now n -> n <= n' -> TFInv x st errs fl now n'.
Proof.
  intros [q [Ew [Q [Ha [He [Ht [Hnow [Hoff [Hlo I]]]]]]]]] Hn. exists q. repeat (split; [assumption|]).
  destruct st as [created|keys closed d]; [exact I|]. destruct I as [wr [ts [Es [A [Hp [V [Hc Hts]]]]]]].
  exists wr, ts. repeat (split; [assumption|]). split; [lia | exact Hts].
Qed.

Lemma write_step_t x st errs fl now n r : TFInv x st errs fl (now + fst r) n ->
  (now + fst r <= hi)%Z -> (N.of_nat (S n) <= usize_max)%N ->
  let '(st', e', fl') := tstep (c_append c) m now st fl r in
  exists x' rot, step x (OWrite (snd r)) = (x', ObsRes 0 rot) /\ TFInv x' st' (errs ++ e') fl' (now + fst r) (S n).
Proof.
  intros I1 Hhi Hmax. destruct st as [created|keys closed d]; cbn [tstep].
  - apply (init_step_t x created errs fl (snd r) (now + fst r)%Z n I1 Hhi Hmax).
  - destruct I1 as [q [Ew [Q [Ha [He [Ht [Hnow [Hoff [Hlo [wr [ts [Es [A [Hp [V [Hn Hts]]]]]]]]]]]]]]]].
    pose proof (active_step_t x q fl errs ts keys closed d wr (snd r) n Ew Ha He Ht Es A Hp V Hn Hts) as AS.
    rewrite Hnow in AS. apply AS; assumption.
Qed.

Definition tfrun := frun_gen tst (tstep (c_append c) m) (simt_st (c_append c) m) (fun _ _ _ => eq_refl) (fun _ _ _ _ _ => eq_refl)
                      TFInv hi tick_step_t write_step_t.

Lemma names_nil_wf f : names f = [] -> fs_wf f.
Proof. intros H. split; intros; rewrite lookup_empty in * by assumption; discriminate. Qed.

Lemma tfinv_final x st errs fl now n : TFInv x st errs fl now n ->
  fs_wf (wfs (s_w x)) /\ tsd_view c e (wfs (s_w x)) (t_keys st) (t_conts st)
  /\ werrs (s_w x) = errs /\ wfaults (s_w x) = fl /\ wkill (s_w x) = None.
Proof.
  intros [q [Ew [Q [Ha [He [Ht [Hnow [Hoff [Hlo I]]]]]]]]]. rewrite Ew. cbn [fw set_faults wfs werrs wfaults wkill].
  assert (V : fs_wf (wfs q) /\ tsd_view c e (wfs q) (t_keys st) (t_conts st)).
  { destruct st as [[t0|]|keys closed d]; cbn [t_keys t_conts].
    - destruct I as [_ [_ [wr0 [I0 [Hp0 V0]]]]]. split; [apply I0|].
      pose proof (tsdinv_view c e lo q wr0 _ _ I0 Hp0) as TV. rewrite V0 in TV. exact TV.
    - destruct I as [_ [Hn _]]. split; [apply names_nil_wf; exact Hn | apply tsd_view_nil; auto].
    - destruct I as [wr [ts [_ [A [Hp [V _]]]]]]. split; [apply A|].
      pose proof (tsdinv_view c e lo q wr _ _ A Hp) as TV. rewrite V in TV. exact TV. }
  destruct V as [W V]. split; [exact W|]. split; [exact V|]. split; [exact He|]. split; [reflexivity | apply Q].
Qed.

Lemma tfinv_start t0 off fl : ts_e c off = e -> (lo <= t0)%Z ->
  TFInv (fst (step {| s_flw := None; s_w := set_faults (world0 t0 off) fl; s_tl := []; s_dead := false |} (OStart c))) (TInit None) [] fl t0 0.
Proof.
  intros He Hlo. exists (world0 t0 off). split; [reflexivity|]. split; [split; reflexivity|]. split; [reflexivity|]. split; [reflexivity|].
  split; [reflexivity|]. split; [reflexivity|]. split; [exact He|]. split; [exact Hlo|]. split; [reflexivity|]. split; reflexivity.
Qed.

(* when the oracle is used up and no rotation is pending, the state is related to the view (closed contents, current
   content) by the very relation of the fault-free development *)
Theorem tfinv_reltd x keys closed d errs now n : TFInv x (TAct keys closed d) errs [] now n ->
  (m <? N.of_nat (length d))%N = false -> RelTd c (CSize m) e lo n x (Some (closed, d)).
Proof.
  intros [q [Ew [Q [Ha [He [Ht [Hnow [Hoff [Hlo [wr [ts [Es [A [Hp [V [Hn Hts]]]]]]]]]]]]]]]] Em.
  destruct Hts as [Hts|Hts]; [|congruence].
  assert (Eq : s_w x = q). { rewrite Ew. destruct q. destruct Q as [F K]. cbn in F, K. subst. reflexivity. }
  split; [exact Ht|]. split; [rewrite Eq; exact Ha|].
  exists keys, wr, (RSize m (N.of_nat (length d))). rewrite Eq.
  split; [rewrite Es, Hts; reflexivity|]. split; [exact A|]. split; [exact V|]. split; [exact Hn|].
  split; [reflexivity|]. intros m' E'. injection E' as <-. eauto.
Qed.

End Tsd.


(* (1) For every fault oracle fl and every list of records with clock advances: after  OStart c :: tops recs  (before each
   record the clock advances by the given number of seconds) from the empty directory with the oracle fl, the directory is
   exactly what simt says - the plain files named by the keys, with the contents listed, nothing else (tsd_view); the
   keys are those of keys_ok (seconds non-decreasing, within a second <ts>, <ts>.restart-0000, <ts>.restart-0001, ...:
   all names different), each key carrying the second at which its file was started -, the error channel holds exactly the
   errors simt lists (with their codes, in order), the oracle is consumed as simt says, and every operation returns
   normally: no panic, no error result, the state is never poisoned. *)
Theorem faults_timestampsdirect c m t0 off fl recs :
  tsdcfg c (CSize m) -> c_cap c = None -> tag_ok c -> append_ok c -> ticks_ok recs ->
  (0 <= t0 + ts_e c off)%Z -> (t0 + telapsed recs + ts_e c off < sec_max)%Z -> (N.of_nat (length recs) <= usize_max)%N ->
  let r := run (fsys t0 off fl) (OStart c :: tops recs) in
  let '(keys, conts, errs, rest) := simt (c_append c) m t0 fl recs in
  fs_wf (wfs (s_w (fst r)))
  /\ tsd_view c (ts_e c off) (wfs (s_w (fst r))) keys conts
  /\ keys_ok keys /\ (forall k, In k keys -> (t0 <= fst k <= t0 + telapsed recs)%Z)
  /\ werrs (s_w (fst r)) = errs
  /\ wfaults (s_w (fst r)) = rest
  /\ (forall o, In o (snd r) -> exists rot, o = ObsRes 0 rot).
Proof.
  intros Hcfg Hcap T Happ Ht Hlo Hhi Hmax. cbv zeta. unfold simt.
  assert (Y : years_ok (ts_e c off) t0 (t0 + telapsed recs)) by (split; assumption).
  pose proof (tfinv_start c m (ts_e c off) t0 t0 off fl eq_refl (Z.le_refl _)) as I0. fold (fsys t0 off fl) in I0.
  pose proof (tfrun c m (ts_e c off) t0 (t0 + telapsed recs) Hcfg Hcap T Happ Y recs _ _ _ _ _ _ I0 Ht (Z.le_refl _) Hmax) as R.
  pose proof (simt_keys (c_append c) m t0 recs t0 (TInit None) fl (Z.le_refl _) Ht) as SK.
  destruct (simt_st (c_append c) m t0 (TInit None) fl recs) as [[st e'] fl']. cbn [fst] in SK.
  destruct R as [x' [obs [R [I O]]]]. cbn [app] in I.
  rewrite run_start, R. cbn [fst snd].
  destruct (tfinv_final c m (ts_e c off) t0 x' st e' fl' _ _ I) as [W [V [He [Hf _]]]].
  destruct SK as [SK _]. destruct (SK (t_ok_init t0 t0)) as [_ [K Rg]].
  split; [exact W|]. split; [exact V|]. split; [exact K|]. split; [exact Rg|]. split; [exact He|]. split; [exact Hf|].
  intros o [<-|Ho]; [eexists; reflexivity|]. rewrite Forall_forall in O. exact (O o Ho).
Qed.
Print Assumptions faults_timestampsdirect.

(* the state-level form *)
Lemma faults_timestampsdirect_st c m t0 off fl recs :
  tsdcfg c (CSize m) -> c_cap c = None -> tag_ok c -> append_ok c -> ticks_ok recs ->
  (0 <= t0 + ts_e c off)%Z -> (t0 + telapsed recs + ts_e c off < sec_max)%Z -> (N.of_nat (length recs) <= usize_max)%N ->
  let r := run (fsys t0 off fl) (OStart c :: tops recs) in
  let '(st, errs, rest) := simt_st (c_append c) m t0 (TInit None) fl recs in
  tsd_view c (ts_e c off) (wfs (s_w (fst r))) (t_keys st) (t_conts st)
  /\ werrs (s_w (fst r)) = errs /\ wfaults (s_w (fst r)) = rest
  /\ (forall o, In o (snd r) -> exists rot, o = ObsRes 0 rot).
Proof.
  intros Hcfg Hcap T Happ Ht Hlo Hhi Hmax.
  pose proof (faults_timestampsdirect c m t0 off fl recs Hcfg Hcap T Happ Ht Hlo Hhi Hmax) as F. cbv zeta in F |- *. unfold simt in F.
  destruct (simt_st (c_append c) m t0 (TInit None) fl recs) as [[st e'] fl']. tauto.
Qed.

(* (2) in terms of the run, record by record *)
Theorem tsd_lost_only_around_failures_run c m t0 off fl recs :
  tsdcfg c (CSize m) -> c_cap c = None -> tag_ok c -> append_ok c -> ticks_ok recs ->
  (0 <= t0 + ts_e c off)%Z -> (t0 + telapsed recs + ts_e c off < sec_max)%Z -> (N.of_nat (length recs) <= usize_max)%N ->
  let x := fst (run (fsys t0 off fl) (OStart c :: tops recs)) in
  let t := tracet (c_append c) m t0 (TInit None) fl recs in
  exists keys conts,
    tsd_view c (ts_e c off) (wfs (s_w x)) keys conts /\ keys_ok keys
    /\ concat conts = concat (List.map t_kept t)
    /\ List.map t_rec t = List.map snd recs
    /\ werrs (s_w x) = concat (List.map t_errs t)
    /\ fl = concat (List.map t_used t) ++ wfaults (s_w x)
    /\ (forall e, In e t -> length (t_errs e) = ntrue (t_used e))
    /\ (forall e, In e t -> (forall f, In f (t_used e) -> f = false) -> t_errs e = [] /\ t_kept e = t_rec e)
    /\ (forall e, In e t -> t_kept e <> t_rec e -> In true (t_used e) /\ In EWrite (t_errs e)).
Proof.
  intros Hcfg Hcap T Happ Ht Hlo Hhi Hmax. cbv zeta.
  pose proof (faults_timestampsdirect c m t0 off fl recs Hcfg Hcap T Happ Ht Hlo Hhi Hmax) as Fr. cbv zeta in Fr. unfold simt in Fr.
  pose proof (tsd_lost_only_around_failures (c_append c) m t0 fl recs) as L.
  destruct (simt_st (c_append c) m t0 (TInit None) fl recs) as [[st e'] fl']. cbv zeta in L.
  destruct Fr as [_ [V [K [_ [He [Hf _]]]]]]. destruct L as [H1 [H2 [H3 [H4 [H5 [H6 H7]]]]]].
  exists (t_keys st), (t_conts st). rewrite He, Hf.
  split; [exact V|]. split; [exact K|]. split; [exact H4|]. split; [exact H1|]. split; [exact H3|]. split; [exact H2|]. auto.
Qed.
Print Assumptions tsd_lost_only_around_failures_run.

(* (2), (3) in terms of the run only: the directory reads (files in the order of the keys) as the concatenation of a
   subsequence `kept` of the records; each missing record is announced by one EWrite: #missing = #EWrite <= #reports; the
   only other code that occurs is ELogFile (a failed step of a rotation; the record of that call is not lost) *)
Theorem tsd_loss_is_reported_run c m t0 off fl recs :
  tsdcfg c (CSize m) -> c_cap c = None -> tag_ok c -> append_ok c -> ticks_ok recs ->
  (0 <= t0 + ts_e c off)%Z -> (t0 + telapsed recs + ts_e c off < sec_max)%Z -> (N.of_nat (length recs) <= usize_max)%N ->
  let x := fst (run (fsys t0 off fl) (OStart c :: tops recs)) in
  exists keys conts kept,
    tsd_view c (ts_e c off) (wfs (s_w x)) keys conts /\ keys_ok keys
    /\ concat conts = concat kept /\ Subseq kept (List.map snd recs)
    /\ length recs = length kept + nlost (werrs (s_w x))
    /\ nlost (werrs (s_w x)) <= length (werrs (s_w x))
    /\ (forall e, In e (werrs (s_w x)) -> e = EWrite \/ e = ELogFile).
Proof.
  intros Hcfg Hcap T Happ Ht Hlo Hhi Hmax. cbv zeta.
  pose proof (faults_timestampsdirect c m t0 off fl recs Hcfg Hcap T Happ Ht Hlo Hhi Hmax) as F. cbv zeta in F. unfold simt in F.
  pose proof (tsd_loss_is_reported (c_append c) m recs t0 (TInit None) fl) as L.
  destruct (simt_st (c_append c) m t0 (TInit None) fl recs) as [[st e'] fl'].
  destruct F as [_ [V [K [_ [He _]]]]]. destruct L as [kept [Hs [Hst [Hl [Hle Hco]]]]].
  exists (t_keys st), (t_conts st), kept. rewrite He. split; [exact V|]. split; [exact K|]. split; [exact Hst|]. auto.
Qed.
Print Assumptions tsd_loss_is_reported_run.

(* (4) recovery at the level of the run.  x1: after recs1; r2: after recs1 ++ recs2.  When the oracle that is left after
   recs1 holds no failure any more: nothing more is reported, every record of recs2 is in the stream, the contents (closed
   files, current file) develop by the fault-free size rule s_run - a rotation whose steps failed is carried out with the
   first record -, keys and closed files are only extended (a file that was closed keeps name and content), all keys are
   different (keys_ok): no file is overwritten; every call returns normally *)
Theorem tsd_recovery_run c m t0 off fl recs1 recs2 :
  tsdcfg c (CSize m) -> c_cap c = None -> tag_ok c -> append_ok c -> ticks_ok (recs1 ++ recs2) ->
  (0 <= t0 + ts_e c off)%Z -> (t0 + telapsed (recs1 ++ recs2) + ts_e c off < sec_max)%Z ->
  (N.of_nat (length (recs1 ++ recs2)) <= usize_max)%N ->
  let x1 := fst (run (fsys t0 off fl) (OStart c :: tops recs1)) in
  let r2 := run (fsys t0 off fl) (OStart c :: tops (recs1 ++ recs2)) in
  let '(st1, _, _) := simt_st (c_append c) m t0 (TInit None) fl recs1 in
  let '(st2, _, _) := simt_st (c_append c) m t0 (TInit None) fl (recs1 ++ recs2) in
  all_false (wfaults (s_w x1)) ->
  tsd_view c (ts_e c off) (wfs (s_w x1)) (t_keys st1) (t_conts st1)
  /\ tsd_view c (ts_e c off) (wfs (s_w (fst r2))) (t_keys st2) (t_conts st2)
  /\ werrs (s_w (fst r2)) = werrs (s_w x1)
  /\ concat (t_conts st2) = concat (t_conts st1) ++ concat (List.map snd recs2)
  /\ taview st2 = s_run m (taview st1) (tops recs2)
  /\ textends st1 st2
  /\ keys_ok (t_keys st2)
  /\ (recs2 <> [] -> exists keys closed d, st2 = TAct keys closed d)
  /\ (forall o, In o (snd r2) -> exists rot, o = ObsRes 0 rot).
Proof.
  intros Hcfg Hcap T Happ Ht Hlo Hhi Hmax. cbv zeta.
  pose proof Ht as Ht'. apply Forall_app in Ht'. destruct Ht' as [Ht1 Ht2].
  pose proof (telapsed_nonneg recs2 Ht2) as Hn2. rewrite telapsed_app in Hhi. rewrite app_length in Hmax.
  pose proof (faults_timestampsdirect_st c m t0 off fl recs1 Hcfg Hcap T Happ Ht1 Hlo ltac:(lia) ltac:(lia)) as F1.
  pose proof (faults_timestampsdirect_st c m t0 off fl (recs1 ++ recs2) Hcfg Hcap T Happ Ht Hlo
                ltac:(rewrite telapsed_app; lia) ltac:(rewrite app_length; lia)) as F2.
  pose proof (tsd_recovery (c_append c) m t0 fl recs1 recs2 Ht) as R.
  cbv zeta in F1, F2.
  destruct (simt_st (c_append c) m t0 (TInit None) fl recs1) as [[st1 e1] fl1].
  destruct (simt_st (c_append c) m t0 (TInit None) fl (recs1 ++ recs2)) as [[st2 e2] fl2].
  destruct F1 as [V1 [He1 [Hf1 _]]]. destruct F2 as [V2 [He2 [_ O2]]].
  intros Hf. rewrite Hf1 in Hf. destruct (R Hf) as [-> [Hs [Hv [Hx [[_ [K _]] Hc]]]]].
  split; [exact V1|]. split; [exact V2|]. split; [congruence|]. split; [exact Hs|]. split; [exact Hv|].
  split; [exact Hx|]. split; [exact K|]. split; [exact Hc | exact O2].
Qed.
Print Assumptions tsd_recovery_run.

(* (4) for arbitrary further operations - restricted: the states in which a rotation is pending are left out.  When the
   oracle has been used up and the file of the writer is not over-full (the rotation check of the next write will not
   rotate; in particular no rotation has failed without having been made up for), the state is related to the view (closed
   contents, current content) by RelTd, the invariant of the fault-free development: whatever basic operations follow
   (writes, flushes, rotate(), clock ticks), they behave exactly as in a run without failures from that directory.
   MISSING: the states with an over-full file (there the time stamp in the naming state may differ from the one RelTd
   prescribes - it is never read, but RelTd fixes it); for further RECORDS tsd_recovery_run covers them too. *)
Theorem tsd_recovery_run_ops_partial c m t0 off fl recs ops :
  tsdcfg c (CSize m) -> c_cap c = None -> tag_ok c -> append_ok c -> ticks_ok recs ->
  Forall basic_op ops -> Forall tick_ok ops ->
  (0 <= t0 + ts_e c off)%Z -> (t0 + telapsed recs + elapsed ops + ts_e c off < sec_max)%Z ->
  (N.of_nat (length recs + length ops) <= usize_max)%N ->
  let x := fst (run (fsys t0 off fl) (OStart c :: tops recs)) in
  let '(st, _, rest) := simt_st (c_append c) m t0 (TInit None) fl recs in
  rest = [] -> forall keys closed d, st = TAct keys closed d -> (m <? N.of_nat (length d))%N = false ->
    RelTd c (CSize m) (ts_e c off) t0 (length recs) x (Some (closed, d))
    /\ RelTd c (CSize m) (ts_e c off) t0 (length recs + length ops) (fst (run x ops)) (s_run m (Some (closed, d)) ops)
    /\ (forall i o b, nth_error ops i = Some o -> (o = OWrite b \/ o = OPlain b) ->
          nth_error (snd (run x ops)) i
          = Some (ObsRes 0 (m <? N.of_nat (length (cur_of (s_run m (Some (closed, d)) (firstn i ops)))))%N)).
Proof.
  intros Hcfg Hcap T Happ Ht Hb Htk Hlo Hhi Hmax. cbv zeta.
  pose proof (telapsed_nonneg recs Ht) as Hn1. pose proof (elapsed_nonneg ops Htk) as Hn2.
  assert (Y : years_ok (ts_e c off) t0 (t0 + telapsed recs)) by (split; [assumption | lia]).
  pose proof (tfinv_start c m (ts_e c off) t0 t0 off fl eq_refl (Z.le_refl _)) as I0. fold (fsys t0 off fl) in I0.
  pose proof (tfrun c m (ts_e c off) t0 (t0 + telapsed recs) Hcfg Hcap T Happ Y recs _ _ _ _ _ _ I0 Ht (Z.le_refl _) ltac:(lia)) as R.
  destruct (simt_st (c_append c) m t0 (TInit None) fl recs) as [[st e'] fl'].
  destruct R as [x' [obs [R [I O]]]]. intros -> keys closed d -> Em.
  rewrite run_start, R. cbn [fst Nat.add] in I |- *.
  pose proof (tfinv_reltd c m (ts_e c off) t0 x' keys closed d _ _ _ I Em) as Rl.
  split; [exact Rl|].
  assert (Wn : wnow (s_w x') = (t0 + telapsed recs)%Z).
  { destruct I as [q [Ew [_ [_ [_ [_ [Hnow _]]]]]]]. rewrite Ew. exact Hnow. }
  assert (Y2 : years_ok (ts_e c off) t0 (t0 + telapsed recs + elapsed ops)) by (split; [assumption | lia]).
  pose proof (run_rel_tsd c (CSize m) _ _ _ Hcfg T Y2 ops x' _ (length recs) Rl Hb Htk ltac:(lia) ltac:(lia)) as [R1 [W1 Z1]].
  destruct (Z1 m eq_refl) as [E2 O2]. rewrite E2 in R1.
  split; [exact R1|]. intros i o b Hi Hw. exact (O2 i o Hi b Hw).
Qed.
Print Assumptions tsd_recovery_run_ops_partial.

(* ------------------------------------------------------------------ the statement, computed on examples *)
Import String.StringSyntax.
Open Scope string_scope.
Definition tx_cfg (app : bool) (m : N) : config := tsd_cfg (ex_sp "log") app (CSize m) None false.
Lemma tx_cfg_ok app m : tsdcfg (tx_cfg app m) (CSize m) /\ c_cap (tx_cfg app m) = None /\ tag_ok (tx_cfg app m) /\ append_ok (tx_cfg app m).
Proof.
  split; [apply tsd_cfg_ok; reflexivity|]. split; [reflexivity|].
  split; [apply tag_free_ok; split; vm_compute; reflexivity|].
  intros _. apply probe_free_ok. vm_compute. reflexivity.
Qed.

(* the run: the directory (name, kind, content; sorted by name), the error channel, the rest of the oracle, and
   whether every operation returned normally *)
Definition tx_run (app : bool) (m : N) (fl : list bool) (recs : list (Z * bytes))
  : list (bytes * N * bytes) * list ecode * list bool * bool :=
  let r := run (fsys 0 0 fl) (OStart (tx_cfg app m) :: tops recs) in
  (snap_of (fst r), werrs (s_w (fst r)), wfaults (s_w (fst r)), forallb obs_normalb (snd r)).
(* the specification, as a directory *)
Definition tx_sim (app : bool) (m : N) (fl : list bool) (recs : list (Z * bytes))
  : list (bytes * N * bytes) * list ecode * list bool * bool :=
  let '(keys, conts, e, rest) := simt app m 0 fl recs in
  (List.map (fun p => (kname (tx_cfg app m) 0 (fst p), 0%N, snd p)) (combine keys conts), e, rest, true).
Definition tagree (app : bool) (m : N) (recs : list (Z * bytes)) (fl : list bool) : bool :=
  let '(d1, e1, f1, ok1) := tx_run app m fl recs in
  let '(d2, e2, f2, ok2) := tx_sim app m fl recs in
  leqb ent_eqb d1 d2 && leqb ec_eqb e1 e2 && leqb Bool.eqb f1 f2 && Bool.eqb ok1 ok2.

(* "abcd" and "ef" in second 0, "gh" and "ijkl" in second 1, "mn" in second 3 *)
Definition trecs5 : list (Z * bytes) := [(0%Z, bs "abcd"); (0%Z, bs "ef"); (1%Z, bs "gh"); (0%Z, bs "ijkl"); (2%Z, bs "mn")].
Definition trecs0 : list (Z * bytes) := [(0%Z, bs "a"); (0%Z, bs "b"); (0%Z, bs "c"); (1%Z, bs "d"); (0%Z, bs "e"); (0%Z, bs "f")].
Lemma trecs5_ticks : ticks_ok trecs5 /\ ticks_ok trecs0.
Proof. split; repeat constructor; cbn; lia. Qed.

(* size limit 3, no append: the first log call makes four fallible calls (read_dir, read_dir, open, write); a rotation
   makes three (read_dir, read_dir, open) *)
Example tx_none :
  simt false 3 0 [] trecs5 = ([(0%Z, 0); (0%Z, 1); (1%Z, 0); (3%Z, 0)], [bs "abcd"; bs "efgh"; bs "ijkl"; bs "mn"], [], [])
  /\ tx_run false 3 [] trecs5
     = ([(bs "app_r1970-01-01_00-00-00.log", 0%N, bs "abcd"); (bs "app_r1970-01-01_00-00-00.restart-0000.log", 0%N, bs "efgh");
         (bs "app_r1970-01-01_00-00-01.log", 0%N, bs "ijkl"); (bs "app_r1970-01-01_00-00-03.log", 0%N, bs "mn")], [], [], true)
  /\ tx_sim false 3 [] trecs5 = tx_run false 3 [] trecs5.
Proof. repeat split; vm_compute; reflexivity. Qed.
(* (i) the second listing of the rotation before "ef" fails: reported (ELogFile), "ef" goes into the over-full first file; the
   next record ("gh", second 1) rotates: the new file carries the second of THAT record; no name is skipped *)
Example tx_listing_of_rotation_fails :
  simt false 3 0 [F;F;F;F; F;T] trecs5 = ([(0%Z, 0); (1%Z, 0); (3%Z, 0)], [bs "abcdef"; bs "ghijkl"; bs "mn"], [ELogFile], [])
  /\ tx_sim false 3 [F;F;F;F; F;T] trecs5 = tx_run false 3 [F;F;F;F; F;T] trecs5.
Proof. split; vm_compute; reflexivity. Qed.
(* ... the same when the open fails; as long as a step fails the file grows, each time reported, nothing lost *)
Example tx_open_of_rotation_keeps_failing :
  simt false 3 0 [F;F;F;F; F;F;T;F; T;F; F;T;F] trecs5 = ([(0%Z, 0); (3%Z, 0)], [bs "abcdefghijkl"; bs "mn"], [ELogFile; ELogFile; ELogFile], [])
  /\ tx_sim false 3 [F;F;F;F; F;F;T;F; T;F; F;T;F] trecs5 = tx_run false 3 [F;F;F;F; F;F;T;F; T;F; F;T;F] trecs5.
Proof. split; vm_compute; reflexivity. Qed.
(* (iii) a listing of the initialisation fails: "abcd" is lost and reported (EWrite); the next record initialises again *)
Example tx_init_fails :
  simt false 3 0 [T] trecs5 = ([(0%Z, 0); (1%Z, 0); (3%Z, 0)], [bs "efgh"; bs "ijkl"; bs "mn"], [EWrite], [])
  /\ tx_sim false 3 [T] trecs5 = tx_run false 3 [T] trecs5.
Proof. split; vm_compute; reflexivity. Qed.
(* with append the calls are read_dir, read_dir, read_dir, open, metadata: when metadata fails the created (empty) file
   stays; the next initialisation - five seconds later - finds it as the latest file and continues it under ITS time stamp *)
Example tx_metadata_fails :
  simt true 3 0 [F;F;F;F;T] [(0%Z, bs "abcd")] = ([(0%Z, 0)], [[]], [EWrite], [])
  /\ simt true 3 0 [F;F;F;F;T] [(0%Z, bs "abcd"); (5%Z, bs "ef")] = ([(0%Z, 0)], [bs "ef"], [EWrite], [])
  /\ tx_run true 3 [F;F;F;F;T] [(0%Z, bs "abcd"); (5%Z, bs "ef")] = ([(bs "app_r1970-01-01_00-00-00.log", 0%N, bs "ef")], [EWrite], [], true)
  /\ tx_sim true 3 [F;F;F;F;T] [(0%Z, bs "abcd"); (5%Z, bs "ef")] = tx_run true 3 [F;F;F;F;T] [(0%Z, bs "abcd"); (5%Z, bs "ef")].
Proof. repeat split; vm_compute; reflexivity. Qed.
(* (iv) the write fails: the record is lost and reported (EWrite) *)
Example tx_write_fails :
  simt false 3 0 [F;F;F;T] trecs5 = ([(0%Z, 0); (1%Z, 0); (3%Z, 0)], [bs "efgh"; bs "ijkl"; bs "mn"], [EWrite], [])
  /\ tx_sim false 3 [F;F;F;T] trecs5 = tx_run false 3 [F;F;F;T] trecs5.
Proof. split; vm_compute; reflexivity. Qed.
(* one log call, two reports: the rotation fails (ELogFile) and then the write fails (EWrite): one record lost *)
Example tx_two_reports :
  simt false 3 0 [F;F;F;F; T;T] trecs5 = ([(0%Z, 0); (1%Z, 0); (3%Z, 0)], [bs "abcd"; bs "ghijkl"; bs "mn"], [ELogFile; EWrite], [])
  /\ tx_sim false 3 [F;F;F;F; T;T] trecs5 = tx_run false 3 [F;F;F;F; T;T] trecs5.
Proof. split; vm_compute; reflexivity. Qed.
(* an instance of the hypotheses of tsd_recovery_run_ops_partial *)
Example tx_ops_instance :
  let '(st, e, rest) := simt_st false 3 0 (TInit None) [F;F;F;F; T;T] trecs5 in
  rest = [] /\ st = TAct [(0%Z, 0); (1%Z, 0); (3%Z, 0)] [bs "abcd"; bs "ghijkl"] (bs "mn") /\ (3 <? N.of_nat (length (bs "mn")))%N = false.
Proof. vm_compute. repeat split. Qed.

Definition kfiles (c : config) (e : Z) (keys : list key) (conts : list bytes) : list entry :=
  List.map (fun p => (kname c e (fst p), 0%N, snd p)) (combine keys conts).

Lemma kfiles_nth c e keys conts i : length keys = length conts -> i < length conts ->
  In (kname c e (nth i keys kd), 0%N, nth i conts []) (kfiles c e keys conts).
Proof.
  intros El Hi. unfold kfiles.
  apply (in_map (fun p => (kname c e (fst p), 0%N, snd p)) _ (nth i keys kd, nth i conts [])).
  rewrite <- (combine_nth keys conts i kd [] El). apply nth_In. rewrite combine_length. apply Nat.min_glb_lt; [rewrite El|]; exact Hi.
Qed.

Lemma kfiles_inv c e keys conts a : length keys = length conts -> In a (kfiles c e keys conts) ->
  exists i, i < length conts /\ a = (kname c e (nth i keys kd), 0%N, nth i conts []).
Proof.
  intros El Ia. unfold kfiles in Ia. apply in_map_iff in Ia. destruct Ia as [p [<- Ip]].
  destruct (In_nth _ _ (kd, []) Ip) as [i [Hi Ei]]. rewrite combine_length in Hi. rewrite combine_nth in Ei by exact El.
  exists i. split; [lia|]. rewrite <- Ei. reflexivity.
Qed.

Lemma kfiles_there c e f keys conts : length keys = length conts ->
  (forall i, i < length conts ->
     exists j, lookup f (kname c e (nth i keys kd)) = Some j /\ plain (inode f j) /\ content f j = nth i conts []) ->
  forall a, In a (kfiles c e keys conts) -> In (ent_name a) (dir_names f) /\ snap_entry f (ent_name a) = a.
Proof.
  intros El Hk a Ia. destruct (kfiles_inv c e keys conts a El Ia) as [i [Hi ->]]. destruct (Hk i Hi) as [j [Lj [Pj Cj]]].
  cbn [ent_name fst]. split; [apply dir_names_lookup; eauto|]. rewrite (snap_entry_plain f _ j Lj Pj), Cj. reflexivity.
Qed.

Lemma tsd_view_snap c e f keys conts : tsd_view c e f keys conts ->
  ascending (List.map ent_name (kfiles c e keys conts)) = true -> snap_list f = kfiles c e keys conts.
Proof.
  intros [El [Hk [Hon Hnd]]] Asc. apply snap_list_exact; [exact Hnd | exact Asc | exact (kfiles_there c e f keys conts El Hk)|].
  intros n j Lj. destruct (Hon n j Lj) as [i [Hi ->]].
  exact (in_map ent_name _ _ (kfiles_nth c e keys conts i El Hi)).
Qed.

(* the names of the specification's directory are in ascending order: this concerns the specification alone *)
Definition tx_sorted (app : bool) (m : N) (recs : list (Z * bytes)) (fl : list bool) : bool :=
  ascending (List.map ent_name (fst (fst (fst (tx_sim app m fl recs))))).

Theorem tagree_holds app m recs fl : ticks_ok recs -> (telapsed recs < sec_max)%Z -> (N.of_nat (length recs) <= usize_max)%N ->
  tx_sorted app m recs fl = true -> tagree app m recs fl = true.
Proof.
  intros Ht Hhi Hmax Hs. destruct (tx_cfg_ok app m) as [Hcfg [Hcap [Htag Happ]]].
  pose proof (faults_timestampsdirect (tx_cfg app m) m 0 0 fl recs Hcfg Hcap Htag Happ Ht (Z.le_refl 0) ltac:(cbn; lia) Hmax) as Fr.
  cbv zeta in Fr. change (c_append (tx_cfg app m)) with app in Fr. change (ts_e (tx_cfg app m) 0) with 0%Z in Fr.
  unfold tx_sorted, tx_sim in Hs. unfold tagree, tx_run, tx_sim.
  destruct (simt app m 0 fl recs) as [[[keys conts] e'] rest]. cbn [fst] in Hs.
  destruct Fr as [_ [V [_ [_ [He [Hf O]]]]]].
  rewrite snap_of_list, (tsd_view_snap _ _ _ _ _ V Hs), He, Hf, (obs_normalb_all _ O).
  rewrite (leqb_refl ent_eqb ent_eqb_refl), (leqb_refl ec_eqb ec_eqb_refl), (leqb_refl Bool.eqb Bool.eqb_reflx). reflexivity.
Qed.

Lemma tagree_all app m recs ls : ticks_ok recs -> (telapsed recs < sec_max)%Z -> (N.of_nat (length recs) <= usize_max)%N ->
  forallb (tx_sorted app m recs) ls = true -> forallb (tagree app m recs) ls = true.
Proof.
  intros Ht Hhi Hmax Hs. rewrite forallb_forall in *. intros fl Ifl. exact (tagree_holds app m recs fl Ht Hhi Hmax (Hs fl Ifl)).
Qed.

(* run and specification agree on ALL fault oracles up to length 8 (511 oracles) for three settings, up to length 7 (255)
   for two more; limit 0: every record rotates (several files per second); empty records included.  What is evaluated is
   the order of the specification's names. *)
Example tx_agree_all :
  forallb (tagree false 3 trecs5) (all_lists 8) = true
  /\ forallb (tagree true 3 trecs5) (all_lists 8) = true
  /\ forallb (tagree true 0 trecs0) (all_lists 8) = true
  /\ forallb (tagree false 0 trecs0) (all_lists 7) = true
  /\ forallb (tagree true 1 [(0%Z, bs "abcd"); (3%Z, bs ""); (0%Z, bs "efgh"); (0%Z, bs ""); (1%Z, bs "i")]) (all_lists 7) = true.
Proof.
  destruct trecs5_ticks as [T5 T0].
  assert (T1 : ticks_ok [(0%Z, bs "abcd"); (3%Z, bs ""); (0%Z, bs "efgh"); (0%Z, bs ""); (1%Z, bs "i")]) by (repeat constructor; cbn; lia).
  repeat apply conj; apply tagree_all; try assumption; vm_compute; (reflexivity || discriminate).
Qed.
