(* Files that are not members of the logger's file family are ignored, TimestampsDirect naming (r<time stamp>[.restart-NNNN],
   no rCURRENT): a run in a directory that holds foreign files is, step by step, the embedding (ForeignFs.embed) of the run
   in the empty directory.

   - foreign name: the family test of the model rejects it (TsForeignFacts.tsd_member c n = false): the listing extracts no
     infix from it, or an infix that the time-stamp filter (r%Y-%m-%d_%H-%M-%S as chrono parses it) does not accept - as a
     plain file, as an archive, and with ".gz" removed.  Examples: a_rXYZ.log, a_r1.log, a_rCURRENT.log,
     a_r1970-01-01_00-00-00.log.bak are foreign, and - since latest_timestamp_file lists with the time-stamp filter, too -
     so are the names with a number infix or something like it: a_r00001.log, a_r1x.log, a_r1970-01-01.log,
     a_r2030-01-01_00-00-00x.log (number_infix_foreign_td), and the names that only a lenient parser reads as a time stamp:
     a_r1970-1-1_0-0-0.log; a_r1999-01-01_00-00-00.log is not (member_files_td: what the model does with them).
   - timestampsdirect_foreign_ignored: every criterion, every history OStart c :: ops ++ [OStop] of basic operations with a
     clock that does not run backwards (snapshots included), with or without append, any buffer capacity, use_utc either way.
   - timestampsdirect_stream_foreign: timestampsdirect_stream carries over.
   - sfx_gz_archive_name_td: why the third clause of tsd_member is there.
   The embedding lemmas (sections NamesTd, CfgTdK) hold for every world, faults and kills included, whose clock shows a year
   1970..9999. *)
Require Import FL.Flw.WorldPar.
Require Import FL.Base.Bytes FL.Base.BytesFacts FL.Base.PathName FL.Fs.Fs FL.Fs.FsFacts FL.Time.Civil FL.Time.TsFormat
  FL.Names.FileSpec FL.Names.NamesFacts FL.Names.SortFacts FL.Names.FamilyFacts
  FL.Flw.Model FL.Flw.ModelFacts FL.Flw.NumFs FL.Flw.NumInv FL.Flw.Run FL.Flw.RunFacts FL.Flw.NumRun FL.Flw.NumTheorems
  FL.Flw.NumListing FL.Flw.CleanupFacts FL.Flw.NumDInv
  FL.Flw.TsCal FL.Flw.TsTime FL.Flw.TsMono FL.Flw.TsNames FL.Flw.TsInv FL.Flw.TsRun FL.Flw.TsTheorems FL.Flw.TsParse
  FL.Flw.TsdInv FL.Flw.TsdRun FL.Flw.TsdTheorems
  FL.Flw.ForeignFs FL.Flw.ForeignSort FL.Flw.ForeignModel FL.Flw.NumForeign FL.Flw.TsForeignFacts FL.Oracles.O_Flw.
From Coq Require Import ZifyN ZifyNat ZifyBool.
Open Scope nat_scope.

(* the naming step of the initialisation: the time stamp that latest_timestamp_file finds (the clock, unless the writer
   appends and finds files of the family) must be one of the years 1970..9999 *)
Section NamesTd.
Variable fn : list (bytes * nat).
Variable fi : list file.
Variable c : config.
Hypothesis Hts : fts (c_spec c) = false.
Hypothesis Hforeign : forall n, In n (fnames fn) -> tsd_member c n = false.
Variable w : world.
Hypothesis HY : forall ts w1, latest_timestamp_file c w (negb (c_append c)) std_fmt = (Ok ts, w1) -> in_years (eoff c w1) ts.
Notation fnm := (fnames fn).
Notation embw := (embedw fn fi).

Lemma init_naming_embed_td : init_naming c (embw w) NTimestampsDirect = lw fn fi (init_naming c w NTimestampsDirect).
Proof.
  unfold init_naming. rewrite (latest_timestamp_file_embed fn fi c Hts Hforeign).
  destruct (latest_timestamp_file c w (negb (c_append c)) std_fmt) as [r w1] eqn:El.
  destruct r as [ts| |]; cbn [lw fst snd bind]; [|reflexivity|reflexivity].
  rewrite (infix_from_ts_embed fn fi c). destruct (infix_ok c w1 ts (HY ts w1 eq_refl)) as [Hl Hd].
  rewrite (collision_free_embed fn fi c Hts Hforeign) by assumption.
  destruct (collision_free c w1 (infix_from_ts c w1 std_fmt ts)) as [r2 w2].
  destruct r2 as [next| |]; cbn [lw fst snd bind]; [|reflexivity|reflexivity].
  destruct (c_append c); [|reflexivity].
  destruct (newest_of_next (infix_from_ts c w1 std_fmt ts) next) as [newest|] eqn:En; [|reflexivity].
  rewrite name_of_embed. change (wfs (embw w2)) with (embed fn fi (wfs w2)).
  rewrite lookup_embed_own by (eapply (newest_name_own fn c Hts Hforeign); eassumption).
  destruct (lookup (wfs w2) (name_of c w2 (Some newest))); reflexivity.
Qed.

Lemma init_naming_td_shape ns infix w2 : init_naming c w NTimestampsDirect = (Ok (ns, infix), w2) ->
  (exists ts, ns = NSTs ts None std_fmt) /\ forall w', ~ In (name_of c w' (Some infix)) fnm.
Proof.
  unfold init_naming.
  destruct (latest_timestamp_file c w (negb (c_append c)) std_fmt) as [[ts| |] w1] eqn:El; cbn [bind]; try discriminate.
  destruct (infix_ok c w1 ts (HY ts w1 eq_refl)) as [Hl Hd].
  destruct (collision_free c w1 (infix_from_ts c w1 std_fmt ts)) as [[next| |] w3] eqn:Ec; cbn [bind]; try discriminate.
  pose proof (collision_free_name_own fn c Hts Hforeign _ _ _ _ Hl Hd Ec) as Hnext.
  pose proof (fun nw => newest_name_own fn c Hts Hforeign _ next nw Hl Hd) as Hnew.
  destruct (c_append c); [|intros E; injection E as <- <- _; eauto].
  destruct (newest_of_next (infix_from_ts c w1 std_fmt ts) next) as [newest|]; [|intros E; injection E as <- <- _; eauto].
  destruct (lookup (wfs w3) (name_of c w3 (Some newest))); intros E; injection E as <- <- _; eauto.
Qed.
End NamesTd.

(* TimestampsDirect naming with cleanup strategy kc, no start-time part in the names, no symlink; with a cleanup: the
   suffix is not "gz" *)
Section CfgTdK.
Variable fn : list (bytes * nat).
Variable fi : list file.
Variable c : config.
Variable crit : criterion.
Variable kc : cleanup.
Hypothesis Hrot : c_rot c = Some (crit, NTimestampsDirect, kc).
Hypothesis Hts : fts (c_spec c) = false.
Hypothesis Hlink : c_symlink c = false.
Hypothesis Hk : kc = KNever \/ fsfx (c_spec c) <> Some gz_sfx.
Hypothesis Hforeign : forall n, In n (fnames fn) -> tsd_member c n = false.
Notation fnm := (fnames fn).
Notation embw := (embedw fn fi).

(* the states of a writer with TimestampsDirect naming and the cleanup strategy kc *)
Definition good_inner_tdk : inner -> Prop :=
  rot_kind (fun ns => exists ts, ns = NSTs ts None std_fmt) (fun k _ => k = kc).

Lemma mount_next_embed_tdk w st force : good_inner_tdk st -> in_years (eoff c w) (wnow w) ->
  mount_next c (embw w) (shin fi st) force = lm fn fi (mount_next c w st force).
Proof.
  intros G Y. apply (mount_next_embed_gen fn fi c w st force Hlink). intros rs wr p ->.
  destruct G as [[ts En] Ek]. rewrite En, Ek. cbn [next_naming].
  change (wnow (embw w)) with (wnow w). rewrite (infix_from_ts_embed fn fi c).
  destruct (infix_ok c w (wnow w) Y) as [Hl Hd]. split.
  - rewrite (collision_free_embed fn fi c Hts Hforeign) by assumption.
    destruct (collision_free c w (infix_from_ts c w std_fmt (wnow w))) as [[i| |] w1]; reflexivity.
  - intros infix w1 ns1. destruct (collision_free c w (infix_from_ts c w std_fmt (wnow w))) as [[i| |] w0] eqn:Ec; try discriminate.
    intros E. injection E as <- <- <-. split; [eapply (collision_free_name_own fn c Hts Hforeign); eassumption|].
    intros w' cur. apply (cleanup_impl_embed_ts fn fi c Hts Hforeign _ _ _ Hk).
Qed.

Lemma initialize_embed_tdk w :
  (forall ts w1, latest_timestamp_file c w (negb (c_append c)) std_fmt = (Ok ts, w1) -> in_years (eoff c w1) ts) ->
  initialize c (embw w) = (shres fi (fst (initialize c w)), embw (snd (initialize c w))).
Proof.
  intros HY. apply (initialize_embed_gen fn fi c crit NTimestampsDirect kc w Hlink Hrot).
  - apply init_naming_embed_td; assumption.
  - intros ns infix w1 E. destruct (init_naming_td_shape fn c Hts Hforeign w HY ns infix w1 E) as [[ts ->] Hn].
    split; [apply Hn|]. intros w' cur. apply (cleanup_impl_embed_ts fn fi c Hts Hforeign _ _ _ Hk).
Qed.
End CfgTdK.

Lemma initialize_good_tdk c crit kc w i w' : c_rot c = Some (crit, NTimestampsDirect, kc) ->
  initialize c w = (Ok i, w') -> good_inner_tdk kc i.
Proof.
  intros Hrot. apply (initialize_kind _ _ c crit NTimestampsDirect kc w i w' Hrot); [|reflexivity].
  intros ns infix w2. unfold init_naming.
  destruct (latest_timestamp_file c w (negb (c_append c)) std_fmt) as [[ts| |] w1]; cbn [bind]; try discriminate.
  destruct (collision_free c w1 (infix_from_ts c w1 std_fmt ts)) as [[next| |] w3]; cbn [bind]; try discriminate.
  destruct (c_append c); [|intros E; injection E as <- _ _; eauto].
  destruct (newest_of_next (infix_from_ts c w1 std_fmt ts) next) as [newest|]; [|intros E; injection E as <- _ _; eauto].
  destruct (lookup (wfs w3) (name_of c w3 (Some newest))); intros E; injection E as <- _ _; eauto.
Qed.

(* without cleanup *)
Section CfgTd.
Variable fn : list (bytes * nat).
Variable fi : list file.
Variable c : config.
Variable crit : criterion.
Hypothesis Hrot : c_rot c = Some (crit, NTimestampsDirect, KNever).
Hypothesis Hts : fts (c_spec c) = false.
Hypothesis Hlink : c_symlink c = false.
Hypothesis Hforeign : forall n, In n (fnames fn) -> tsd_member c n = false.
Notation fnm := (fnames fn).
Notation embw := (embedw fn fi).

Definition good_inner_td (st : inner) : Prop :=
  match st with
  | Active (Some rs) _ _ => (exists ts, rs_naming rs = NSTs ts None std_fmt) /\ rs_cleanup rs = KNever
  | _ => True
  end.

Lemma mount_next_embed_td w st force : good_inner_td st -> in_years (eoff c w) (wnow w) ->
  mount_next c (embw w) (shin fi st) force = lm fn fi (mount_next c w st force).
Proof. exact (mount_next_embed_tdk fn fi c KNever Hts Hlink (or_introl eq_refl) Hforeign w st force). Qed.

Lemma mount_next_good_td w st force r w' st' : good_inner_td st -> mount_next c w st force = (r, w', st') -> good_inner_td st'.
Proof.
  apply (mount_next_kind (fun ns => exists ts, ns = NSTs ts None std_fmt) (fun k _ => k = KNever)).
  intros w0 ns r1 w1 ns1 [ts ->]. cbn [next_naming].
  destruct (collision_free c w0 (infix_from_ts c w0 std_fmt (wnow w0))) as [[i| |] w2]; intros H; injection H as _ _ <-; eauto.
Qed.

Lemma initialize_embed_td w :
  (forall ts w1, latest_timestamp_file c w (negb (c_append c)) std_fmt = (Ok ts, w1) -> in_years (eoff c w1) ts) ->
  initialize c (embw w) = (shres fi (fst (initialize c w)), embw (snd (initialize c w))).
Proof. exact (initialize_embed_tdk fn fi c crit KNever Hrot Hts Hlink (or_introl eq_refl) Hforeign w). Qed.

Lemma initialize_good_td w i w' : initialize c w = (Ok i, w') -> good_inner_td i.
Proof. exact (initialize_good_tdk c crit KNever w i w' Hrot). Qed.
End CfgTd.

(* ------------------------------------------------------------------ the states of the run in the clean directory *)
Section RunTd.
Variable fn : list (bytes * nat).
Variable fi : list file.
Variable c : config.
Variable crit : criterion.
Variables e lo hi : Z.
Hypothesis Hcfg : tsdcfg c crit.
Hypothesis Hyears : years_ok e lo hi.
Hypothesis Hforeign : forall n, In n (fnames fn) -> tsd_member c n = false.

Definition good_td (x : sys) : Prop := (exists a n, RelTd c crit e lo n x a) /\ (wnow (s_w x) <= hi)%Z.

Lemma good_td_cfg x s : good_td x -> s_flw x = Some s -> f_cfg s = c /\ f_poisoned s = false.
Proof.
  intros [[a [n [_ [_ R]]]] _] Es. destruct a as [[closed cur]|].
  - destruct R as [keys [wr [roll [E _]]]]. rewrite E in Es. injection Es as <-. split; reflexivity.
  - destruct R as [E _]. rewrite E in Es. injection Es as <-. split; reflexivity.
Qed.

Lemma good_td_years x : good_td x -> in_years (eoff c (s_w x)) (wnow (s_w x)).
Proof.
  intros [[a [n [_ [_ R]]]] Hhi]. destruct a as [[closed cur]|].
  - destruct R as [keys [wr [roll [_ [I _]]]]]. rewrite (td_off _ _ _ _ _ _ _ I).
    apply (years_in e lo hi); [exact Hyears|]. pose proof (tsdinv_now _ _ _ _ _ _ _ I). lia.
  - destruct R as [_ [_ [_ [_ [Hoff Hlo]]]]]. rewrite Hoff. apply (years_in e lo hi); [exact Hyears | lia].
Qed.

Lemma good_td_inner x s : good_td x -> s_flw x = Some s -> good_inner_td (f_inner s).
Proof.
  intros [[a [n [_ [_ R]]]] _] Es. destruct a as [[closed cur]|].
  - destruct R as [keys [wr [roll [E _]]]]. rewrite E in Es. injection Es as <-. cbn. split; [eauto | reflexivity].
  - destruct R as [E _]. rewrite E in Es. injection Es as <-. exact Logic.I.
Qed.

Lemma mount_next_embed_good_td x s : good_td x -> s_flw x = Some s ->
  mount_next c (embedw fn fi (s_w x)) (shin fi (f_inner s)) true = lm fn fi (mount_next c (s_w x) (f_inner s) true).
Proof.
  intros G Es. destruct Hcfg as [Hrot [Hts [Hlink _]]].
  apply (mount_next_embed_td fn fi c Hts Hlink Hforeign); [eapply good_td_inner; eassumption | apply good_td_years; exact G].
Qed.

Lemma write_buffer_embed_good_td x s b : good_td x -> s_flw x = Some s ->
  write_buffer (embeds fi s) (embedw fn fi (s_w x)) b = lwb fn fi (write_buffer s (s_w x) b).
Proof.
  intros G Es. pose proof Hcfg as [Hrot [Hts [Hlink _]]]. pose proof (good_td_years x G) as Y.
  pose proof (good_td_inner x s G Es) as Gi. destruct (good_td_cfg x s G Es) as [Ec _].
  destruct G as [[a [n [_ [_ R]]]] Hhi].
  apply (write_buffer_embed_pt fn fi c); [exact Ec | |].
  - (* a new writer: the directory of the clean run is empty, the time stamp is the clock's *)
    intros Hi. destruct a as [[closed cur]|].
    + destruct R as [keys [wr [roll [E _]]]]. rewrite E in Es. injection Es as <-. discriminate Hi.
    + destruct R as [_ [Q [Hn _]]]. apply (initialize_embed_td fn fi c crit Hrot Hts Hlink Hforeign).
      intros ts w1 El. rewrite (latest_timestamp_file_empty c _ _ Q Hn) in El. injection El as <- <-. exact Y.
  - intros w0 st0 H0. destruct a as [[closed cur]|].
    + destruct R as [keys [wr [roll [E _]]]]. rewrite E in Es. injection Es as <-. cbn [st_tsd f_inner] in H0.
      injection H0 as <- <-. apply (mount_next_embed_td fn fi c Hts Hlink Hforeign); [exact Gi | exact Y].
    + destruct R as [E [Q [Hn [Hi [Hoff Hlo]]]]]. rewrite E in Es. injection Es as <-. cbn [new_flw f_inner] in H0.
      destruct (initialize_empty_tsd c crit e lo (s_w x) Hcfg Q Hn Hi Hoff Hlo) as [w1 [wr [roll [Ei [_ [_ [_ [S1 _]]]]]]]].
      rewrite Ei in H0. injection H0 as <- <-.
      apply (mount_next_embed_td fn fi c Hts Hlink Hforeign); [cbn; split; [eauto | reflexivity]|].
      rewrite (eoff_same_env c _ _ S1), (same_env_now _ _ S1). exact Y.
Qed.

(* the directory of such a state holds no foreign name *)
Lemma good_td_fam x : good_td x -> fam_g fn good_td x.
Proof.
  intros G. split; [exact G|]. pose proof Hcfg as [_ [Hts _]]. destruct G as [[a [n [_ [_ R]]]] Hhi].
  intros nme Hn. destruct a as [[closed cur]|].
  - destruct R as [keys [wr [roll [_ [I _]]]]]. apply dir_names_lookup in Hn. destruct Hn as [j Hj].
    destruct (td_only _ _ _ _ _ _ _ I nme j Hj) as [i [Hi ->]].
    apply (kname_own fn c Hforeign). apply (years_in e lo hi); [exact Hyears|].
    assert (Ik : In (nth i keys kd) keys) by (apply nth_In; rewrite (td_len _ _ _ _ _ _ _ I); lia).
    pose proof (td_range _ _ _ _ _ _ _ I _ Ik). lia.
  - destruct R as [_ [_ [E _]]]. unfold dir_names in Hn. rewrite E in Hn. destruct Hn.
Qed.
End RunTd.

(* ------------------------------------------------------------------ the theorem *)
(* The foreign-name condition: the family test of the model (tsd_member, TsForeignFacts.v) rejects the name. *)
Theorem timestampsdirect_foreign_ignored c crit t0 off foreign ops :
  tsdcfg c crit -> tag_ok c -> Forall basic_op ops -> Forall tick_ok ops ->
  (0 <= t0 + ts_e c off)%Z -> (t0 + elapsed ops + ts_e c off < sec_max)%Z -> (N.of_nat (length ops) <= usize_max)%N ->
  NoDup (List.map fst foreign) ->
  (forall n, In n (List.map fst foreign) -> tsd_member c n = false) ->
  let ops' := OStart c :: ops ++ [OStop] in
  let rf := run (sys0f t0 off foreign) ops' in
  let r0 := run (sys0 t0 off) ops' in
  (* 1: the same observations; a snapshot shows the foreign files in addition *)
  List.map (strip_obs (List.map fst foreign)) (snd rf) = snd r0
  /\ (Forall (fun o => o <> OSnap) ops -> snd rf = snd r0)
  (* 2: the foreign files are in place, unchanged *)
  /\ (forall n d, In (n, d) foreign -> file_of (wfs (s_w (fst rf))) n = Some (plain_file t0 d))
  (* 3: every other name is what the run in the empty directory makes of it *)
  /\ (forall n, ~ In n (List.map fst foreign) -> file_of (wfs (s_w (fst rf))) n = file_of (wfs (s_w (fst r0))) n)
  /\ (forall n, In n (List.map fst foreign) -> file_of (wfs (s_w (fst r0))) n = None)
  (* the whole state: the run is the embedding of the run in the empty directory *)
  /\ fst rf = embedx (names (fs0f t0 foreign)) (inodes (fs0f t0 foreign)) (fst r0).
Proof.
  intros Hcfg T Hb Htk Hlo Hhi Hmax ND Hfor. pose proof Hcfg as [Hrot [Hts [Hlink Hasync]]].
  pose proof (fs0f_names t0 foreign ND) as Hd.
  assert (Hforeign : forall n, In n (fnames (names (fs0f t0 foreign))) -> tsd_member c n = false) by (rewrite Hd; exact Hfor).
  assert (Y : years_ok (ts_e c off) t0 (t0 + elapsed ops)) by (split; assumption).
  apply (foreign_ignored_g c (good_td c crit (ts_e c off) t0 (t0 + elapsed ops)) t0 off foreign ops Hts Hasync).
  - intros x s G Es. eapply good_td_cfg; eassumption.
  - intros x s b G Es. apply (write_buffer_embed_good_td _ _ c crit _ _ _ Hcfg Y Hforeign); assumption.
  - intros x s G Es. apply (mount_next_embed_good_td _ _ c crit _ _ _ Hcfg Y Hforeign); assumption.
  - exact Hb.
  - exact ND.
  - intros i. apply (good_td_fam _ c crit _ _ _ Hcfg Y Hforeign).
    destruct (step (sys0 t0 off) (OStart c)) as [x0 ob0] eqn:E0.
    pose proof (start_rel_tsd c crit t0 off) as R0. rewrite E0 in R0. cbn [fst] in *.
    assert (W0 : wnow (s_w x0) = t0) by (cbn in E0; injection E0 as <- _; reflexivity).
    pose proof (elapsed_firstn_le ops Htk i) as El. pose proof (firstn_length_le ops i) as Ll.
    pose proof (run_rel_tsd c crit _ _ _ Hcfg T Y (firstn i ops) x0 None 0 R0 (Forall_firstn' _ _ i Hb) (Forall_firstn' _ _ i Htk)
                  ltac:(lia) ltac:(cbn [Nat.add]; lia)) as [R1 [W1 _]].
    split; [eauto | lia].
  - intros n Hn. rewrite <- Hd in Hn.
    destruct (timestampsdirect_stream_view c crit t0 off ops Hcfg T Hb Htk Hlo Hhi Hmax) as [keys [files [[Hl [_ [Hon _]]] [_ [_ Rg]]]]].
    destruct (lookup (wfs (s_w (fst (run (sys0 t0 off) (OStart c :: ops ++ [OStop]))))) n) as [j|] eqn:Ej; [exfalso|reflexivity].
    destruct (Hon n j Ej) as [i [Hi ->]]. revert Hn. apply (kname_own _ c Hforeign).
    apply (years_in _ _ _ _ Y). apply Rg. apply nth_In. lia.
Qed.
Print Assumptions timestampsdirect_foreign_ignored.

(* ------------------------------------------------------------------ the stream of records *)
(* the family files of a directory that may hold other files, too: the files named by the keys hold `files`, and no
   other name outside the foreign ones exists *)
Definition tsd_view_family (c : config) (e : Z) (fnm : list bytes) (f : fs) (keys : list key) (files : list bytes) : Prop :=
  length keys = length files
  /\ (forall i, i < length files ->
        exists fl, file_of f (kname c e (nth i keys kd)) = Some fl /\ plain fl /\ fdata fl = nth i files [])
  /\ (forall n, ~ In n fnm -> file_of f n <> None -> exists i, i < length files /\ n = kname c e (nth i keys kd)).

(* timestampsdirect_stream carries over: with foreign files in the directory the family files still hold, in the order
   of their keys, exactly the bytes written *)
Theorem timestampsdirect_stream_foreign c crit t0 off foreign ops :
  tsdcfg c crit -> tag_ok c -> Forall basic_op ops -> Forall tick_ok ops ->
  (0 <= t0 + ts_e c off)%Z -> (t0 + elapsed ops + ts_e c off < sec_max)%Z -> (N.of_nat (length ops) <= usize_max)%N ->
  NoDup (List.map fst foreign) ->
  (forall n, In n (List.map fst foreign) -> tsd_member c n = false) ->
  exists keys files,
    tsd_view_family c (ts_e c off) (List.map fst foreign)
      (wfs (s_w (fst (run (sys0f t0 off foreign) (OStart c :: ops ++ [OStop]))))) keys files
    /\ concat files = written ops /\ keys_ok keys
    /\ (forall k, In k keys -> (t0 <= fst k <= t0 + elapsed ops)%Z).
Proof.
  intros Hcfg T Hb Htk Hlo Hhi Hmax ND Hfor.
  destruct (timestampsdirect_foreign_ignored c crit t0 off foreign ops Hcfg T Hb Htk Hlo Hhi Hmax ND Hfor) as [_ [_ [_ [H3 _]]]].
  destruct (timestampsdirect_stream_view c crit t0 off ops Hcfg T Hb Htk Hlo Hhi Hmax) as [keys [files [[Hl [Hcl [Hon _]]] [Hc [K Rg]]]]].
  exists keys, files. split; [|split; [exact Hc | split; [exact K | exact Rg]]].
  set (ff := wfs (s_w (fst (run (sys0f t0 off foreign) (OStart c :: ops ++ [OStop]))))) in *.
  set (f0 := wfs (s_w (fst (run (sys0 t0 off) (OStart c :: ops ++ [OStop]))))) in *.
  assert (Y : years_ok (ts_e c off) t0 (t0 + elapsed ops)) by (split; assumption).
  assert (Hkn : forall i, i < length files -> ~ In (kname c (ts_e c off) (nth i keys kd)) (List.map fst foreign)).
  { intros i Hi Hin. apply Hfor in Hin. rewrite memberd_kname in Hin; [discriminate|].
    apply (years_in _ _ _ _ Y). apply Rg. apply nth_In. lia. }
  split; [exact Hl|]. split.
  - intros i Hi. destruct (Hcl i Hi) as [j [Lj PC]]. exact (own_file _ ff f0 H3 _ j _ (Hkn i Hi) Lj PC).
  - intros n Hn Hex. destruct (own_exists _ ff f0 H3 n Hn Hex) as [j Lj]. exact (Hon n j Lj).
Qed.
Print Assumptions timestampsdirect_stream_foreign.

(* ------------------------------------------------------------------ examples *)
Import String.StringSyntax.
Open Scope string_scope.
Definition extd_c : config :=
  {| c_spec := {| fbase := bs "a"; fdisc := None; fts := false; fsfx := Some (bs "log") |};
     c_append := true; c_cap := Some 3%nat; c_rot := Some (CSize 3, NTimestampsDirect, KNever); c_utc := false;
     c_symlink := false; c_bg := false; c_async := false; c_start := None |}.

(* "abcd" is larger than 3: the write of "ef" rotates (same second: restart-0000); the clock advances, the trigger and -
   "ghij" is larger than 3 - the write of "k" rotate *)
Definition extd_ops : list op :=
  [OWrite (bs "abcd"); OWrite (bs "ef"); OTick 1; OTrigger; OWrite (bs "ghij"); OSnap; OWrite (bs "k")].

(* near misses of the family a_r<time stamp>[.restart-NNNN].log[.gz]: another suffix behind or instead of the suffix, no time
   stamp, too few bytes in the infix, another fixed part, no suffix, the rCURRENT file (and its archive) of the other
   naming, the fixed part alone, a restart counter with too few digits, no "r"; the files of the number namings (plain and
   compressed), a number and a letter, a date without the time, a time stamp and a letter *)
Definition extd_foreign : list (bytes * bytes) :=
  [ (bs "a_r1970-01-01_00-00-00.log.bak", bs "w"); (bs "a_rXYZ.log", bs "x"); (bs "b.log", bs "y");
    (bs "a_r1970-01-01_00-00-00.txt", bs "z"); (bs "a_r1.log", bs "u"); (bs "ax_r1970-01-01_00-00-00.log", bs "v");
    (bs "a_r1970-01-01_00-00-00", bs "t"); (bs "a_rCURRENT.log", bs "s"); (bs "a.log", bs "q");
    (bs "a_r1970-01-01_00-00-00.restart-00.log", bs "p"); (bs "a_1970-01-01_00-00-00.log", bs "o");
    (bs "a_rCURRENT.log.gz", bs "n");
    (bs "a_r1x.log", bs "1"); (bs "a_r00001.log", bs "2"); (bs "a_r2030-01-01_00-00-00x.log", bs "3");
    (bs "a_r1970-01-01.log", bs "4"); (bs "a_r00001.log.gz", bs "5") ].

Example foreign_hypotheses_td :
  tsdcfg extd_c (CSize 3) /\ tag_ok extd_c /\ Forall basic_op extd_ops /\ Forall tick_ok extd_ops
  /\ (0 <= 0 + ts_e extd_c 0)%Z /\ (0 + elapsed extd_ops + ts_e extd_c 0 < sec_max)%Z
  /\ (N.of_nat (length extd_ops) <= usize_max)%N
  /\ NoDup (List.map fst extd_foreign)
  /\ (forall n, In n (List.map fst extd_foreign) -> tsd_member extd_c n = false).
Proof.
  split; [repeat split|]. split; [apply tag_free_ok; split; vm_compute; reflexivity|].
  split; [repeat constructor|].
  split; [repeat (apply Forall_cons; [cbn [tick_ok]; first [exact Logic.I | lia]|]); apply Forall_nil|].
  split; [vm_compute; discriminate|]. split; [vm_compute; reflexivity|]. split; [vm_compute; discriminate|]. split.
  - apply nodupb_sound. vm_compute. reflexivity.
  - apply forallb_false. vm_compute. reflexivity.
Qed.

(* the theorem applied *)
Example foreign_instance_td :
  List.map (strip_obs (List.map fst extd_foreign)) (snd (run (sys0f 0 0 extd_foreign) (OStart extd_c :: extd_ops ++ [OStop])))
  = snd (run (sys0 0 0) (OStart extd_c :: extd_ops ++ [OStop])).
Proof.
  destruct foreign_hypotheses_td as [H1 [H2 [H3 [H4 [H5 [H6 [H7 [H8 H9]]]]]]]].
  exact (proj1 (timestampsdirect_foreign_ignored extd_c (CSize 3) 0 0 extd_foreign extd_ops H1 H2 H3 H4 H5 H6 H7 H8 H9)).
Qed.

(* ... and computed: the directory after the run *)
Example foreign_instance_dir_td :
  ex_snap (fst (run (sys0f 0 0 extd_foreign) (OStart extd_c :: extd_ops ++ [OStop])))
  = [ (bs "a.log", 0%N, bs "q");
      (bs "a_1970-01-01_00-00-00.log", 0%N, bs "o");
      (bs "a_r00001.log", 0%N, bs "2");
      (bs "a_r00001.log.gz", 0%N, bs "5");
      (bs "a_r1.log", 0%N, bs "u");
      (bs "a_r1970-01-01.log", 0%N, bs "4");
      (bs "a_r1970-01-01_00-00-00", 0%N, bs "t");
      (bs "a_r1970-01-01_00-00-00.log", 0%N, bs "abcd");
      (bs "a_r1970-01-01_00-00-00.log.bak", 0%N, bs "w");
      (bs "a_r1970-01-01_00-00-00.restart-00.log", 0%N, bs "p");
      (bs "a_r1970-01-01_00-00-00.restart-0000.log", 0%N, bs "ef");
      (bs "a_r1970-01-01_00-00-00.txt", 0%N, bs "z");
      (bs "a_r1970-01-01_00-00-01.log", 0%N, bs "ghij");
      (bs "a_r1970-01-01_00-00-01.restart-0000.log", 0%N, bs "k");
      (bs "a_r1x.log", 0%N, bs "1");
      (bs "a_r2030-01-01_00-00-00x.log", 0%N, bs "3");
      (bs "a_rCURRENT.log", 0%N, bs "s");
      (bs "a_rCURRENT.log.gz", 0%N, bs "n");
      (bs "a_rXYZ.log", 0%N, bs "x");
      (bs "ax_r1970-01-01_00-00-00.log", 0%N, bs "v");
      (bs "b.log", 0%N, bs "y") ]
  /\ ex_snap (fst (run (sys0 0 0) (OStart extd_c :: extd_ops ++ [OStop])))
  = [ (bs "a_r1970-01-01_00-00-00.log", 0%N, bs "abcd");
      (bs "a_r1970-01-01_00-00-00.restart-0000.log", 0%N, bs "ef");
      (bs "a_r1970-01-01_00-00-01.log", 0%N, bs "ghij");
      (bs "a_r1970-01-01_00-00-01.restart-0000.log", 0%N, bs "k") ].
Proof. vm_compute. split; reflexivity. Qed.

(* the observations other than the snapshot are literally the same *)
Example foreign_instance_obs_td :
  filter (fun ob => match ob with ObsSnap _ _ _ => false | _ => true end)
    (snd (run (sys0f 0 0 extd_foreign) (OStart extd_c :: extd_ops ++ [OStop])))
  = [ObsRes 0 false; ObsRes 0 false; ObsRes 0 true; ObsRes 0 false; ObsRes 0 false; ObsRes 0 false; ObsRes 0 true; ObsRes 0 false].
Proof. vm_compute. reflexivity. Qed.

(* Files that pass the family test are NOT foreign, whoever put them there - and the model does act on them.  With append:
   (1) a_r1999-01-01_00-00-00.log carries the latest time stamp of the directory: the writer CONTINUES it ("abcd" is
       appended to the stranger's "w"); without append it is left alone (a new file is started);
   (2) a_r1970-01-01_00-00-01.restart-0005.log - a time stamp in the future of the clock (0) - is continued, too, and the
       restart counters of that second go on from 0006;
   (3) an archive a_r1970-01-01_00-00-01.log.gz: the plain name of that second counts as taken, the files of that second
       start with restart-0000;
   (4) names that only chrono's lenient parser reads as a time stamp do NOT pass the test (since the repair of the
       time-stamp filter, which wants the text the format itself writes): a_r1970-1-1_0-0-0.log (no leading zeros),
       "a_r 1970-01-01_00-00-00.log" (white space), a_r+1970-01-01_00-00-00.log (a sign) are foreign.
   The names of (1)-(3) DO follow the pattern <fixed>_<infix of the naming>.<suffix>[.gz]: this is legitimate. *)
Example member_files_td :
  let run_with n := ex_snap (fst (run (sys0f 0 0 [(bs n, bs "w")]) (OStart extd_c :: extd_ops ++ [OStop]))) in
  List.map (tsd_member extd_c) [bs "a_r1999-01-01_00-00-00.log"; bs "a_r1970-01-01_00-00-01.restart-0005.log";
                                bs "a_r1970-01-01_00-00-01.log.gz";
                                bs "a_r 1970-01-01_00-00-00.log"; bs "a_r1970-1-1_0-0-0.log"; bs "a_r+1970-01-01_00-00-00.log";
                                bs "a_r2024-02-29_23-59-58.log"]
  = [true; true; true; false; false; false; true]
  /\ run_with "a_r1999-01-01_00-00-00.log"
     = [ (bs "a_r1970-01-01_00-00-00.log", 0%N, bs "ef");
         (bs "a_r1970-01-01_00-00-01.log", 0%N, bs "ghij");
         (bs "a_r1970-01-01_00-00-01.restart-0000.log", 0%N, bs "k");
         (bs "a_r1999-01-01_00-00-00.log", 0%N, bs "wabcd") ]
  /\ run_with "a_r1970-01-01_00-00-01.restart-0005.log"
     = [ (bs "a_r1970-01-01_00-00-00.log", 0%N, bs "ef");
         (bs "a_r1970-01-01_00-00-01.restart-0005.log", 0%N, bs "wabcd");
         (bs "a_r1970-01-01_00-00-01.restart-0006.log", 0%N, bs "ghij");
         (bs "a_r1970-01-01_00-00-01.restart-0007.log", 0%N, bs "k") ]
  /\ run_with "a_r1970-01-01_00-00-01.log.gz"
     = [ (bs "a_r1970-01-01_00-00-00.log", 0%N, bs "abcd");
         (bs "a_r1970-01-01_00-00-00.restart-0000.log", 0%N, bs "ef");
         (bs "a_r1970-01-01_00-00-01.log.gz", 0%N, bs "w");
         (bs "a_r1970-01-01_00-00-01.restart-0000.log", 0%N, bs "ghij");
         (bs "a_r1970-01-01_00-00-01.restart-0001.log", 0%N, bs "k") ].
Proof. vm_compute. repeat split. Qed.

(* A NUMBER INFIX IS FOREIGN for this naming.  Before the repair of the code latest_timestamp_file listed the directory
   with the (lax) number filter - "r", a digit, one more byte -, and the family test had to accept whatever that filter
   accepted: a_r1x.log, a_r00001.log, a_r1970-01-01.log and a_r2030-01-01_00-00-00x.log were members, and the last one did
   harm: 20 bytes were cut out of its name, "r2030-01-01_00-00-00" was read as the latest time stamp of the directory, and
   a writer with append continued (created) a_r2030-01-01_00-00-00.log.
   NOW latest_timestamp_file lists with the time-stamp filter; every listing of this naming does, or asks for one given
   time stamp (collision_free_infix: IFEq).  All these names are rejected by tsd_member, the run with such a file in the
   directory - with append - is the run in the empty directory, the file stays what it was.  Nothing remains: the number
   filter is not applied by this naming any more. *)
Example number_infix_foreign_td :
  let names := [bs "a_r1x.log"; bs "a_r00001.log"; bs "a_r00001.log.gz"; bs "a_r1.log"; bs "a_r1backup.log"; bs "a_r00001x.log";
                bs "a_r1970-01-01.log"; bs "a_r2030-01-01_00-00-00x.log"; bs "a_r1970-01-01_00-00-00.restart-0000x.log"] in
  List.map (tsd_member extd_c) names = List.map (fun _ => false) names
  /\ Forall (fun n =>
        List.map (strip_obs [n]) (snd (run (sys0f 0 0 [(n, bs "w")]) (OStart extd_c :: extd_ops ++ [OStop])))
        = snd (run (sys0 0 0) (OStart extd_c :: extd_ops ++ [OStop]))
        /\ file_of (wfs (s_w (fst (run (sys0f 0 0 [(n, bs "w")]) (OStart extd_c :: extd_ops ++ [OStop]))))) n
           = Some (plain_file 0 (bs "w"))) names
  /\ ex_snap (fst (run (sys0f 0 0 [(bs "a_r2030-01-01_00-00-00x.log", bs "w")]) (OStart extd_c :: extd_ops ++ [OStop])))
     = [ (bs "a_r1970-01-01_00-00-00.log", 0%N, bs "abcd");
         (bs "a_r1970-01-01_00-00-00.restart-0000.log", 0%N, bs "ef");
         (bs "a_r1970-01-01_00-00-01.log", 0%N, bs "ghij");
         (bs "a_r1970-01-01_00-00-01.restart-0000.log", 0%N, bs "k");
         (bs "a_r2030-01-01_00-00-00x.log", 0%N, bs "w") ].
Proof.
  cbv zeta. split; [vm_compute; reflexivity|]. split; [|vm_compute; reflexivity].
  repeat (apply Forall_cons; [vm_compute; split; reflexivity|]). apply Forall_nil.
Qed.

(* Why the third clause of tsd_member (the name without ".gz" is a plain member) is there.  collision_free_infix looks up
   <new name>.gz.  Unless the suffix of the family is "gz" this name is listed among the archives (tsd_member_simple).
   With the suffix "gz" no listing of the model accepts a_r1970-01-01_00-00-01.gz.gz - neither as a plain file (infix
   "r1970-01-01_00-00-01.gz": the tail "gz" is no restart counter) nor as an archive -, but the lookup finds it, and the files
   of that second start with restart-0000.  A theorem with "every listing rejects the name" as its hypothesis would be
   false for this configuration. *)
Definition extd_gz : config :=
  {| c_spec := {| fbase := bs "a"; fdisc := None; fts := false; fsfx := Some (bs "gz") |};
     c_append := true; c_cap := Some 3%nat; c_rot := Some (CSize 3, NTimestampsDirect, KNever); c_utc := false;
     c_symlink := false; c_bg := false; c_async := false; c_start := None |}.
Example sfx_gz_archive_name_td :
  let n := bs "a_r1970-01-01_00-00-01.gz.gz" in
  fam_q extd_gz (fsfx (c_spec extd_gz)) n = false /\ fam_q extd_gz (Some gz_sfx) n = false /\ tsd_member extd_gz n = true
  /\ tsdcfg extd_gz (CSize 3) /\ tag_ok extd_gz
  /\ ex_snap (fst (run (sys0f 0 0 [(n, bs "w")]) (OStart extd_gz :: extd_ops ++ [OStop])))
     = [ (bs "a_r1970-01-01_00-00-00.gz", 0%N, bs "abcd");
         (bs "a_r1970-01-01_00-00-00.restart-0000.gz", 0%N, bs "ef");
         (bs "a_r1970-01-01_00-00-01.gz.gz", 0%N, bs "w");
         (bs "a_r1970-01-01_00-00-01.restart-0000.gz", 0%N, bs "ghij");
         (bs "a_r1970-01-01_00-00-01.restart-0001.gz", 0%N, bs "k") ]
  /\ ex_snap (fst (run (sys0 0 0) (OStart extd_gz :: extd_ops ++ [OStop])))
     = [ (bs "a_r1970-01-01_00-00-00.gz", 0%N, bs "abcd");
         (bs "a_r1970-01-01_00-00-00.restart-0000.gz", 0%N, bs "ef");
         (bs "a_r1970-01-01_00-00-01.gz", 0%N, bs "ghij");
         (bs "a_r1970-01-01_00-00-01.restart-0000.gz", 0%N, bs "k") ].
Proof.
  cbv zeta. split; [vm_compute; reflexivity|]. split; [vm_compute; reflexivity|]. split; [vm_compute; reflexivity|].
  split; [repeat split|]. split; [apply tag_free_ok; split; vm_compute; reflexivity|]. vm_compute. split; reflexivity.
Qed.

(* the stream theorem applied: the family files hold the bytes written *)
Example stream_instance_td :
  exists keys files,
    tsd_view_family extd_c 0 (List.map fst extd_foreign)
      (wfs (s_w (fst (run (sys0f 0 0 extd_foreign) (OStart extd_c :: extd_ops ++ [OStop]))))) keys files
    /\ concat files = bs "abcdefghijk" /\ keys_ok keys /\ (forall k, In k keys -> (0 <= fst k <= 1)%Z).
Proof.
  destruct foreign_hypotheses_td as [H1 [H2 [H3 [H4 [H5 [H6 [H7 [H8 H9]]]]]]]].
  exact (timestampsdirect_stream_foreign extd_c (CSize 3) 0 0 extd_foreign extd_ops H1 H2 H3 H4 H5 H6 H7 H8 H9).
Qed.
