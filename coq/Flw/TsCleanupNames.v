(* Time-stamp namings with cleanup, part 1: the names.  The rotated files are named by keys (second, position within the
   second): kname c e k = <fixed>_r<YYYY-MM-DD_HH-MM-SS>[.restart-NNNN].<suffix>, their archives carry an additional ".gz".
   - the sort key of the listing (read_dir_related_files) orders these names - plain or archive, mixed - by their KEYS: for
     different seconds by the time-stamp text (which is monotone in the second, TsMono.v), within a second by the restart
     counter, the file without counter first (SortFacts.v);
   - so the listing of the cleanup,  list_log_gz .. (IFTs std_fmt),  of a directory that holds the plain files of the keys
     mid <= i < L and the archives of the keys lo <= i < mid is EXACTLY: newest first the plain files by descending key, then
     the archives by descending key (list_log_gz_ts);
   - collision_free_infix on such a directory (files of older keys removed, some compressed) still answers with the next
     position of the second asked for, provided the newest file of that second is still there, plain or compressed
     (collision_free_infix_tsk). *)
Require Import FL.Base.Bytes FL.Base.BytesFacts FL.Base.PathName FL.Fs.Fs FL.Time.Civil FL.Time.TsFormat
  FL.Names.FileSpec FL.Names.NamesFacts FL.Names.SortFacts FL.Names.FamilyFacts FL.Flw.Model FL.Flw.ModelFacts
  FL.Flw.NumInv FL.Flw.NumListing FL.Flw.CleanupFacts FL.Flw.NumCleanupNames FL.Flw.TsTime FL.Flw.TsMono
  FL.Flw.TsNames FL.Flw.TsInv FL.Flw.TsParse FL.Flw.ForeignModel FL.Flw.ListingExact FL.Flw.GenCleanup.
From Coq Require Import Lia Permutation Sorted.
Open Scope nat_scope.

(* ------------------------------------------------------------------ the text of a time stamp ends with  <digit> - <digits> *)
Lemma all_digits_last (D : bytes) : D <> [] -> all_digits D = true -> exists D0 d, D = D0 ++ [d] /\ is_digit d = true.
Proof.
  intros Hne Hd. destruct (exists_last Hne) as [D0 [d ->]]. exists D0, d. split; [reflexivity|].
  apply (all_digits_in _ d Hd). apply in_or_app. right. left. reflexivity.
Qed.

Lemma pad_dec_nonempty w z : pad_dec w z <> [].
Proof. unfold pad_dec, pad_left. intros E. apply app_eq_nil in E. exact (dec_nonempty _ (proj2 E)). Qed.

Lemma tsx_tail e t : in_years e t ->
  exists P d D, tsx e t = P ++ d :: 45%N :: D /\ is_digit d = true /\ D <> [] /\ all_digits D = true.
Proof.
  intros H. destruct (tsx_text e t H) as [-> Ok]. unfold std_text. set (cv := civil_of (t + e)%Z).
  destruct (all_digits_last (pad_dec 2 (cmi cv)) (pad_dec_nonempty _ _) (pad_dec_digits _ _)) as [M0 [d [EM Hd]]].
  exists (114%N :: pad_dec 4 (cy cv) ++ 45%N :: pad_dec 2 (cmo cv) ++ 45%N :: pad_dec 2 (cd cv) ++ 95%N :: pad_dec 2 (ch cv) ++ 45%N :: M0),
         d, (pad_dec 2 (cs cv)).
  split; [|split; [exact Hd | split; [apply pad_dec_nonempty | apply pad_dec_digits]]].
  rewrite EM. repeat (rewrite <- app_assoc || rewrite <- app_comm_cons). reflexivity.
Qed.

(* the decomposition  <anything> <non-digit> <digits>  is unique *)
Lemma last_nondigit_split (u v a b : bytes) (x y : N) :
  all_digits a = true -> all_digits b = true -> is_digit x = false -> is_digit y = false ->
  u ++ x :: a = v ++ y :: b -> u = v /\ x = y /\ a = b.
Proof.
  intros Ha Hb Hx Hy. revert v. induction u as [|p u IH]; intros [|q v] H; cbn [app] in H.
  - injection H as -> ->. auto.
  - injection H as _ H. exfalso. assert (I : In y a) by (rewrite H; apply in_or_app; right; left; reflexivity).
    rewrite (all_digits_in _ _ Ha I) in Hy. discriminate.
  - injection H as _ H. exfalso. assert (I : In x b) by (rewrite <- H; apply in_or_app; right; left; reflexivity).
    rewrite (all_digits_in _ _ Hb I) in Hx. discriminate.
  - injection H as -> H. destruct (IH v H) as (-> & -> & ->). auto.
Qed.

(* the stem  <anything> <time stamp>  carries neither a restart counter nor a number *)
Lemma stem_key_stamp F e t : in_years e t -> stem_key (F ++ tsx e t) = (F ++ tsx e t, None).
Proof.
  intros H. destruct (tsx_tail e t H) as (P & d & D & E & Hd & Hne & HD).
  destruct (stem_key_cases' (F ++ tsx e t)) as [K|(X & D' & r & HB & _ & HD' & _)]; [exact K | exfalso].
  rewrite E in HB. unfold restart_tag in HB. cbn [app] in HB.
  assert (HB' : (F ++ P ++ [d]) ++ 45%N :: D = (X ++ [46; 114; 101; 115; 116; 97; 114]%N ++ [116%N]) ++ 45%N :: D')
    by (rewrite <- !app_assoc; cbn [app]; exact HB).
  apply last_nondigit_split in HB'; [|exact HD | exact HD' | reflexivity | reflexivity].
  destruct HB' as [HB' _]. rewrite !app_assoc in HB'. apply app_inj_tail in HB'. destruct HB' as [_ HB']. subst d. discriminate Hd.
Qed.

Lemma main_key_stamp F e t : in_years e t -> main_key (F ++ tsx e t) = (F ++ tsx e t, None).
Proof.
  intros H. destruct (tsx_tail e t H) as (P & d & D & E & Hd & Hne & HD).
  apply (main_key_tail _ (F ++ P ++ [d]) 45%N D); [|exact HD | reflexivity | discriminate].
  rewrite E, <- !app_assoc. reflexivity.
Qed.

(* ------------------------------------------------------------------ the sort key of a name of the family *)
Definition rkey_of (m : nat) : option (nat * bytes) :=
  match m with
  | O => None
  | S m' => Some (length (drop_zeros (restart_digits (N.of_nat m'))), drop_zeros (restart_digits (N.of_nat m')))
  end.

Lemma kname_tsx0 c e t : kname c e (t, 0) = as_name (c_spec c) (fixed0 c) (Some (tsx e t)).
Proof. reflexivity. Qed.
Lemma kname_tsxS c e t m : kname c e (t, S m) = as_name (c_spec c) (fixed0 c) (Some (restart_infix (tsx e t) (N.of_nat m))).
Proof. reflexivity. Qed.

(* sfx_ok (c_spec c) and TsReader.not_gz c are the same condition *)
Lemma sfx_ok_not_gz_c c : sfx_ok (c_spec c) -> TsReader.not_gz c.
Proof. intros H. exact H. Qed.

Lemma sort_key_kname c e k (g : bool) : sfx_ok (c_spec c) -> in_years e (fst k) ->
  sort_key (fsfx (c_spec c)) (add_gz g (kname c e k)) = (under (fixed0 c) ++ tsx e (fst k), None, rkey_of (snd k)).
Proof.
  intros G H. destruct k as [t m]. cbn [fst snd] in *.
  assert (Hne : tsx e t <> []) by (apply tsx_nonempty; exact H).
  assert (Hgz : strip_suffix (dot :: gz_sfx) (as_name (c_spec c) (fixed0 c) (Some (tsx e t))) = None)
    by (rewrite <- kname_tsx0; apply (kname_no_gz c e (t, 0) G H)).
  destruct m as [|m].
  - rewrite kname_tsx0. rewrite (sk_as_name_some _ _ _ Hne) in *.
    rewrite sort_key_stem, (sk_stem_with_suffix _ _ _ Hgz). unfold full_key.
    rewrite (stem_key_stamp _ e t H). cbn [fst snd]. rewrite (main_key_stamp _ e t H). reflexivity.
  - rewrite kname_tsxS, (sort_key_restart_name (c_spec c) (fixed0 c) (tsx e t) (tsx e t) (N.of_nat m) g Hne Hgz).
    rewrite (main_key_stamp _ e t H). reflexivity.
Qed.

(* names of the family - plain or archive, mixed - are ordered by their keys *)
Theorem key_le_kname c e k1 k2 (g1 g2 : bool) : sfx_ok (c_spec c) -> in_years e (fst k1) -> in_years e (fst k2) -> klt k1 k2 ->
  key_le (fsfx (c_spec c)) (add_gz g1 (kname c e k1)) (add_gz g2 (kname c e k2)) = true.
Proof.
  intros G H1 H2 [Hlt|[Heq Hlt]].
  - pose proof (sort_key_kname c e k1 g1 G H1) as E1. pose proof (sort_key_kname c e k2 g2 G H2) as E2.
    assert (Hd : under (fixed0 c) ++ tsx e (fst k1) <> under (fixed0 c) ++ tsx e (fst k2)).
    { intros E. apply app_inv_head in E. apply tsx_inj in E; [lia | assumption | assumption]. }
    rewrite (key_le_by_main _ _ _ _ _ _ _ _ _ E1 E2 Hd). unfold lex_le. rewrite lex_lt_app_head.
    rewrite (lex_lt_asym _ _ (tsx_mono e _ _ H1 H2 Hlt)). reflexivity.
  - destruct k1 as [t m1], k2 as [t2 m2]. cbn [fst snd] in *. subst t2.
    assert (Hne : tsx e t <> []) by (apply tsx_nonempty; exact H1).
    assert (Hgz : strip_suffix (dot :: gz_sfx) (as_name (c_spec c) (fixed0 c) (Some (tsx e t))) = None)
      by (rewrite <- kname_tsx0; apply (kname_no_gz c e (t, 0) G H1)).
    destruct m2 as [|m2]; [lia|]. destruct m1 as [|m1].
    + rewrite kname_tsx0, kname_tsxS.
      exact (proj1 (naming_plain_before_restart (c_spec c) _ (fixed0 c) (tsx e t) (N.of_nat m2) g1 g2 eq_refl Hne Hgz)).
    + rewrite !kname_tsxS.
      exact (proj1 (naming_restart_order (c_spec c) _ (fixed0 c) (tsx e t) (tsx e t) (N.of_nat m1) (N.of_nat m2) g1 g2 eq_refl Hne Hgz
                      ltac:(lia))).
Qed.

(* ------------------------------------------------------------------ the names by position *)
Definition tname (c : config) (e : Z) (keys : list key) (i : nat) : bytes := kname c e (nth i keys kd).

Lemma tname_snoc c e keys k i : i < length keys -> tname c e (keys ++ [k]) i = tname c e keys i.
Proof. intros Hi. unfold tname. rewrite app_nth1 by exact Hi. reflexivity. Qed.
Lemma tname_last c e keys k : tname c e (keys ++ [k]) (length keys) = kname c e k.
Proof. unfold tname. rewrite app_nth2, Nat.sub_diag by lia. reflexivity. Qed.

Lemma strip_none_ext_is n : strip_suffix (dot :: gz_sfx) n = None -> ext_is n gz_sfx = false.
Proof.
  intros X. destruct (ext_is n gz_sfx) eqn:E; [exfalso | reflexivity].
  apply ext_is_gz_suffix in E. destruct E as [st E]. rewrite E in X. unfold dot_gz in X. rewrite strip_suffix_app in X. discriminate.
Qed.

Lemma kname_nonempty c e k : in_years e (fst k) -> kname c e k <> [].
Proof.
  intros H E. rewrite kname_shape in E by exact H. apply app_eq_nil in E. destruct E as [_ E].
  apply app_eq_nil in E. destruct E as [E _]. exact (tsx_nonempty e _ H E).
Qed.

Lemma gz_kname_not_cname c e k : in_years e (fst k) -> gz_name (kname c e k) <> cname c.
Proof.
  intros H E. rewrite gz_name_app, kname_shape, cname_shape, <- !app_assoc in E by exact H. apply app_inv_head in E.
  exact (tsx_app_not_cur e (fst k) _ _ H E).
Qed.

Lemma add_gz_app g n : add_gz g n = n ++ (if g then dot_gz else []).
Proof. destruct g; cbn [add_gz]; [reflexivity | rewrite app_nil_r; reflexivity]. Qed.

Lemma add_gz_true n : add_gz true n = gz_name n.
Proof. rewrite gz_name_app. reflexivity. Qed.

Lemma gnames_ts c e (keys : list key) : sfx_ok (c_spec c) -> keys_ok keys -> (forall k, In k keys -> in_years e (fst k)) ->
  gnames (tname c e keys) (cname c) (length keys).
Proof.
  intros G K Y.
  assert (Yi : forall i, i < length keys -> in_years e (fst (nth i keys kd))) by (intros i Hi; apply Y, nth_In; exact Hi).
  constructor.
  - intros i j Hi Hj E. unfold tname in E. apply kname_inj in E; [|apply Yi; exact Hi | apply Yi; exact Hj].
    exact (keys_distinct keys K i j Hi Hj E).
  - intros i Hi. apply kname_nonempty, Yi, Hi.
  - intros i Hi. apply strip_none_ext_is. apply (kname_no_gz c e _ G (Yi i Hi)).
  - intros i Hi. split; [apply kname_not_cname, Yi, Hi | apply gz_kname_not_cname, Yi, Hi].
Qed.

(* ------------------------------------------------------------------ the next key *)
(* the newest key: if a key with the second asked for exists, the last key has it *)
Lemma last_key_newest' (keys : list key) t n :
  keys_ok keys -> (forall k, In k keys -> (fst k <= t)%Z) -> (forall m, In (t, m) keys <-> m < n) -> 0 < n ->
  0 < length keys /\ nth (length keys - 1) keys kd = (t, n - 1).
Proof.
  intros K Hle Hn Hpos.
  assert (I1 : In (t, n - 1) keys) by (apply Hn; lia).
  destruct (In_nth keys _ kd I1) as [j [Hj Ej]]. split; [lia|].
  destruct (Nat.eq_dec j (length keys - 1)) as [->|Hne]; [exact Ej|]. exfalso.
  pose proof (keys_sorted keys K j (length keys - 1) ltac:(lia)) as X. rewrite Ej in X.
  assert (IL : In (nth (length keys - 1) keys kd) keys) by (apply nth_In; lia).
  pose proof (Hle _ IL) as HL. destruct (nth (length keys - 1) keys kd) as [tl ml] eqn:El. cbn [fst snd] in *.
  destruct X as [X|[X1 X2]]; cbn [fst snd] in *; [lia|]. subst tl. apply Hn in IL. lia.
Qed.

(* a file of the second t, not older than any other, gets the next position of t: the names of the keys so far stay, the
   new name is the last one *)
Lemma gdir_snoc_key c e (keys : list key) t f closed lo mid :
  sfx_ok (c_spec c) -> keys_ok keys -> (forall k, In k keys -> in_years e (fst k)) -> (forall k, In k keys -> (fst k <= t)%Z) ->
  in_years e t -> length closed = length keys -> gdir (tname c e keys) (cname c) f closed lo mid ->
  let keys' := keys ++ [(t, count t keys)] in
  keys_ok keys' /\ (forall k, In k keys' -> in_years e (fst k))
  /\ gnames (tname c e keys') (cname c) (S (length keys))
  /\ tname c e keys' (length keys) = kname c e (t, count t keys)
  /\ gdir (tname c e keys') (cname c) f closed lo mid.
Proof.
  intros G K Y Hle Yt Hlen KD keys'.
  assert (K' : keys_ok keys') by (apply ko_snoc; assumption).
  assert (Y' : forall k, In k keys' -> in_years e (fst k)).
  { intros k Ik. apply in_app_or in Ik. destruct Ik as [Ik|[<-|[]]]; [exact (Y _ Ik) | exact Yt]. }
  split; [exact K'|]. split; [exact Y'|].
  split. { replace (S (length keys)) with (length keys') by (unfold keys'; rewrite app_length; cbn [length]; lia). apply gnames_ts; assumption. }
  split; [apply tname_last|].
  apply (gdir_ext (tname c e keys)); [|exact KD]. intros i Hi. apply tname_snoc. lia.
Qed.

(* ------------------------------------------------------------------ the family test with the time-stamp filter *)
Section Filters.
Variables (off : Z) (c : config) (e : Z).
Hypothesis G : sfx_ok (c_spec c).
Let sfx := fsfx (c_spec c).

Lemma sfx_not_gz : fsfx (c_spec c) <> Some gz_sfx.
Proof. intros E. pose proof (sfx_ok_not_gz _ _ G E) as X. rewrite beq_refl in X. discriminate. Qed.

Lemma qf_kname_plain k : in_years e (fst k) -> qf off sfx (fixed0 c) (IFTs std_fmt) sfx (kname c e k) = true.
Proof. intros Y. unfold qf, sfx. rewrite (candidate_kname c e k Y). cbn [filter_infix]. rewrite (canonical_tsx e _ Y). reflexivity. Qed.

Lemma qf_kname_gz k : in_years e (fst k) -> qf off sfx (fixed0 c) (IFTs std_fmt) (Some gz_sfx) (kname c e k) = false.
Proof. intros Y. unfold qf, infix_candidate. rewrite (kname_no_gz c e k G Y). reflexivity. Qed.

Lemma qf_gzk_gz k : in_years e (fst k) -> qf off sfx (fixed0 c) (IFTs std_fmt) (Some gz_sfx) (gz_name (kname c e k)) = true.
Proof. intros Y. apply qf_plain_gz_name; [exact sfx_not_gz | apply qf_kname_plain; exact Y]. Qed.

Lemma digits_not_gz_end (X Y d : bytes) : d <> [] -> all_digits d = true -> X ++ dot_gz <> Y ++ d.
Proof.
  intros Hne Hd E. destruct (all_digits_last d Hne Hd) as [d0 [x [-> Hx]]].
  change dot_gz with ([46; 103]%N ++ [122%N]) in E. rewrite !app_assoc in E. apply app_inj_tail in E. destruct E as [_ E].
  subst x. discriminate Hx.
Qed.

Lemma qf_gzk_plain k : in_years e (fst k) -> qf off sfx (fixed0 c) (IFTs std_fmt) sfx (gz_name (kname c e k)) = false.
Proof.
  intros Y. unfold qf, sfx. rewrite infix_candidate_plain, gz_name_app, (kname_shape c e k Y). unfold sfxs. pose proof G as G'. unfold sfx_ok in G'.
  destruct (fsfx (c_spec c)) as [s|].
  - replace ((under (fixed0 c) ++ tsx e (fst k) ++ ktail (snd k) ++ dot :: s) ++ dot_gz)
      with ((under (fixed0 c) ++ tsx e (fst k) ++ ktail (snd k)) ++ (dot :: s) ++ dot :: gz_sfx)
      by (unfold dot_gz; rewrite <- !app_assoc; reflexivity).
    rewrite (strip_sfx_gz_none s _ G'). reflexivity.
  - rewrite app_nil_r.
    destruct (cand_core (fixed0 c) ((under (fixed0 c) ++ tsx e (fst k) ++ ktail (snd k)) ++ dot_gz)) as [infix|] eqn:E; [exfalso | reflexivity].
    apply cand_core_spec in E. destruct E as (rs & Hrs & Hnd & _ & E).
    rewrite <- !app_assoc in E. apply app_inv_head in E.
    destruct Hrs as [->|(d & -> & Hl & Hd)].
    + rewrite app_nil_r in E. apply Hnd. rewrite <- E. apply in_or_app. right. apply in_or_app. right. left. reflexivity.
    + rewrite (app_assoc (tsx e (fst k))) in E.
      change (infix ++ dot :: restart_word ++ d) with (infix ++ (dot :: restart_word) ++ d) in E. rewrite (app_assoc infix) in E.
      apply (digits_not_gz_end _ _ d) in E; [exact E | destruct d; [cbn [length] in Hl; lia | discriminate] | exact Hd].
Qed.

Lemma qf_cname_ts_plain : qf off sfx (fixed0 c) (IFTs std_fmt) sfx (cname c) = false.
Proof. unfold qf, sfx. rewrite candidate_cname. cbn [filter_infix]. rewrite cur_infix_not_canonical. reflexivity. Qed.
Lemma qf_cname_ts_gz : qf off sfx (fixed0 c) (IFTs std_fmt) (Some gz_sfx) (cname c) = false.
Proof. unfold qf, infix_candidate. rewrite (cname_no_gz c G). reflexivity. Qed.
End Filters.

(* ------------------------------------------------------------------ THE LISTING *)
Section TsListing.
Variables (c : config) (e : Z) (off : Z) (f : fs) (keys : list key) (closed : list bytes) (lo mid : nat).
Hypothesis Hsfx : sfx_ok (c_spec c).
Hypothesis Hko : keys_ok keys.
Hypothesis Hy : forall k, In k keys -> in_years e (fst k).
Hypothesis Hlen : length keys = length closed.
Hypothesis KD : gdir (tname c e keys) (cname c) f closed lo mid.

Let L := length closed.
Let sfx := fsfx (c_spec c).
Let Yi : forall i, i < L -> in_years e (fst (nth i keys kd)).
Proof. intros i Hi. apply Hy, nth_In. rewrite Hlen. exact Hi. Qed.

Lemma tname_order i j (g1 g2 : bool) : i < j -> j < L ->
  key_le sfx (add_gz g1 (tname c e keys i)) (add_gz g2 (tname c e keys j)) = true.
Proof.
  intros Hij Hj. unfold tname, sfx. apply key_le_kname; [exact Hsfx | apply Yi; lia | apply Yi; lia|].
  apply (keys_sorted keys Hko). rewrite Hlen. fold L. lia.
Qed.

(* newest first: the plain files by descending key, then the archives by descending key *)
Theorem list_log_gz_ts :
  list_log_gz off (c_spec c) (fixed0 c) f (IFTs std_fmt) = Some (glisting (tname c e keys) lo mid L).
Proof.
  pose proof (gnames_ts c e keys Hsfx Hko Hy) as GN. rewrite Hlen in GN.
  apply (list_log_gz_gen (c_spec c) (fixed0 c) (IFTs std_fmt) off (tname c e keys) (cname c) f closed lo mid GN KD).
  - intros i j g1 g2 Hij Hj. apply tname_order; assumption.
  - intros i g Hi. unfold tname. rewrite add_gz_app, kname_shape, <- app_assoc by (apply Yi; exact Hi). apply is_prefix_under.
  - intros i Hi. apply qf_kname_plain. apply Yi. exact Hi.
  - intros i Hi. apply qf_kname_gz; [exact Hsfx | apply Yi; exact Hi].
  - intros i Hi. apply qf_gzk_gz; [exact Hsfx | apply Yi; exact Hi].
  - intros i Hi. apply qf_gzk_plain; [exact Hsfx | apply Yi; exact Hi].
  - apply qf_cname_ts_plain.
  - apply qf_cname_ts_gz. exact Hsfx.
Qed.
End TsListing.
Print Assumptions list_log_gz_ts.

(* ------------------------------------------------------------------ collision_free_infix after cleanups *)
Lemma contains_app_last P A B p0 x : P = p0 ++ [x] -> ~ In x B -> contains P A = false -> contains P (A ++ B) = false.
Proof.
  intros -> Hx Hc. destruct (contains (p0 ++ [x]) (A ++ B)) eqn:E; [exfalso | reflexivity].
  unfold contains in E. destruct (find_sub (p0 ++ [x]) (A ++ B)) as [i|] eqn:F; [|discriminate].
  apply find_sub_split in F. destruct F as [a [b [F _]]].
  assert (F' : A ++ B = (a ++ p0) ++ x :: b) by (rewrite F, <- !app_assoc; reflexivity).
  apply app_eq_app in F'. destruct F' as [l [[E1 E2]|[E1 E2]]].
  - destruct l as [|y l].
    + cbn [app] in E2. apply Hx. rewrite <- E2. left; reflexivity.
    + injection E2 as <- E2. rewrite E1, <- app_assoc in Hc.
      change (x :: l) with ([x] ++ l) in Hc. rewrite (app_assoc p0) in Hc. rewrite contains_intro in Hc. discriminate.
  - apply Hx. rewrite E2. apply in_or_app. right. left. reflexivity.
Qed.

(* the first file of a second is no restart sibling, compressed or not *)
Lemma kname_plain_no_tag_gz c e t (g : bool) : tag_ok c -> in_years e t ->
  contains (tsx e t ++ restart_tag) (add_gz g (kname c e (t, 0))) = false.
Proof.
  intros T Y. destruct g; cbn [add_gz]; [|apply kname_plain_no_tag; assumption].
  apply (contains_app_last _ _ _ (tsx e t ++ [46; 114; 101; 115; 116; 97; 114; 116]%N) 45%N).
  - rewrite <- app_assoc. reflexivity.
  - unfold dot, gz_sfx. cbn [In]. intros X. repeat (destruct X as [X|X]; [discriminate X|]). exact X.
  - apply kname_plain_no_tag; assumption.
Qed.

Lemma kname_restart_find_gz c e t m (g : bool) : ~ has_stamp_tag (fixed0 c) -> in_years e t ->
  let z := if g then dot_gz else [] in
  add_gz g (kname c e (t, S m)) = under (fixed0 c) ++ tsx e t ++ restart_tag ++ restart_digits (N.of_nat m) ++ sfxs (c_spec c) ++ z
  /\ find_sub (tsx e t ++ restart_tag) (add_gz g (kname c e (t, S m))) = Some (length (under (fixed0 c))).
Proof.
  intros Hf Y z.
  assert (E : add_gz g (kname c e (t, S m))
              = under (fixed0 c) ++ tsx e t ++ restart_tag ++ restart_digits (N.of_nat m) ++ sfxs (c_spec c) ++ z).
  { rewrite add_gz_app, (proj1 (kname_restart_find c e t m Hf Y)), <- !app_assoc. reflexivity. }
  split; [exact E|]. rewrite E, (stamp_find_under c e t t _ Hf Y Y).
  assert (P : is_prefix (tsx e t ++ restart_tag) (tsx e t ++ restart_tag ++ restart_digits (N.of_nat m) ++ sfxs (c_spec c) ++ z) = true).
  { rewrite (app_assoc (tsx e t)). apply sk_is_prefix_app. }
  destruct (tsx e t ++ restart_tag ++ restart_digits (N.of_nat m) ++ sfxs (c_spec c) ++ z) as [|x r]; cbn [find_sub]; rewrite P; f_equal; lia.
Qed.

Lemma restart_number_kname_gz c e t m (g : bool) : ~ has_stamp_tag (fixed0 c) -> in_years e t -> (N.of_nat m <= usize_max)%N ->
  restart_number (tsx e t) (add_gz g (kname c e (t, S m))) = Some (N.of_nat m).
Proof.
  intros T H Hm. destruct (kname_restart_find_gz c e t m g T H) as [E F]. unfold restart_number. rewrite F, E.
  rewrite <- Nat.add_assoc, sk_skipn_app, sk_skipn_app.
  unfold restart_tag. cbn [app skipn].
  rewrite fs_take_digits_app; [|apply restart_digits_all|].
  - rewrite parse_uint_digits; [|apply restart_digits_nonempty | apply restart_digits_all].
    assert (V : dec_value (restart_digits (N.of_nat m)) = N.of_nat m).
    { unfold restart_digits, pad_left. rewrite dec_value_zeros. apply dec_value_dec. }
    rewrite V. destruct (N.leb_spec (N.of_nat m) usize_max); [reflexivity | lia].
  - intros h r. unfold sfxs. destruct (fsfx (c_spec c)); [intros X; injection X as <- _; reflexivity|].
    destruct g; cbn [app]; [intros X; injection X as <- _; reflexivity | discriminate].
Qed.

Lemma kname_restart_contains_gz c e t m (g : bool) : ~ has_stamp_tag (fixed0 c) -> in_years e t ->
  contains (tsx e t ++ restart_tag) (add_gz g (kname c e (t, S m))) = true.
Proof. intros T H. unfold contains. rewrite (proj2 (kname_restart_find_gz c e t m g T H)). reflexivity. Qed.

(* only names with the time stamp asked for pass the filter "infix = <ts>" *)
Lemma qf_eq_upper_gz c e off ts o x k (g : bool) : in_years e ts -> in_years e (fst k) -> x = add_gz g (kname c e k) ->
  qf off (fsfx (c_spec c)) (fixed0 c) (IFEq (tsx e ts)) o x = true -> fst k = ts.
Proof.
  intros Hts Yk -> Q. unfold qf in Q. destruct (infix_candidate (fsfx (c_spec c)) o (fixed0 c) (add_gz g (kname c e k))) as [i|] eqn:Ei; [|discriminate].
  cbn [filter_infix] in Q. apply beq_eq in Q. subst i. apply infix_candidate_prefix in Ei. destruct Ei as [y Ey].
  rewrite add_gz_app, (kname_shape c e k Yk), <- !app_assoc in Ey. apply app_inv_head in Ey.
  apply app_inj_len in Ey; [|rewrite !tsx_length by assumption; reflexivity].
  destruct Ey as [Ey _]. apply tsx_inj in Ey; assumption.
Qed.

Lemma qf_eq_cname c e off ts o : in_years e ts ->
  qf off (fsfx (c_spec c)) (fixed0 c) (IFEq (tsx e ts)) o (cname c) = false.
Proof.
  intros Hts. destruct (qf off (fsfx (c_spec c)) (fixed0 c) (IFEq (tsx e ts)) o (cname c)) eqn:Q; [exfalso | reflexivity].
  unfold qf in Q. destruct (infix_candidate (fsfx (c_spec c)) o (fixed0 c) (cname c)) as [i|] eqn:Ei; [|discriminate].
  cbn [filter_infix] in Q. apply beq_eq in Q. subst i. apply infix_candidate_prefix in Ei. destruct Ei as [y Ey].
  rewrite cname_shape in Ey. apply app_inv_head in Ey. exact (tsx_app_not_cur e ts y _ Hts (eq_sym Ey)).
Qed.

Lemma gz_kname_not_kname c e k k' : sfx_ok (c_spec c) -> in_years e (fst k) -> in_years e (fst k') -> gz_name (kname c e k) <> kname c e k'.
Proof.
  intros G Y Y' E. pose proof (ext_is_gz_name (kname c e k) (kname_nonempty c e k Y)) as X.
  rewrite E, (strip_none_ext_is _ (kname_no_gz c e k' G Y')) in X. discriminate.
Qed.

(* THE CHARACTERISATION after cleanups.  keys: all keys used so far; the directory holds the plain files of the keys at the
   positions mid <= i < L and the archives of those at lo <= i < mid (and possibly rCURRENT).  n: the number of keys with the
   second asked for.  If there is one, the NEWEST of them is still there, plain or compressed.  Then the answer is the next
   position of that second - the same as without any cleanup (TsNames.collision_free_infix_ts). *)
Theorem collision_free_infix_tsk c e off f (keys : list key) closed lo mid ts n :
  tag_ok c -> sfx_ok (c_spec c) -> in_years e ts -> (forall k, In k keys -> in_years e (fst k)) ->
  length keys = length closed -> gdir (tname c e keys) (cname c) f closed lo mid ->
  (forall m, In (ts, m) keys <-> m < n) -> (N.of_nat n <= usize_max)%N ->
  (0 < n -> exists i, lo <= i < length closed /\ nth i keys kd = (ts, n - 1)) ->
  collision_free_infix off (c_spec c) (fixed0 c) f (tsx e ts) = Some (Some (infix_of e (ts, n))).
Proof.
  intros T G Hts Hk Hlen KD Hn Hmax Hnew. pose proof KD as [Hle Hnd Hp Ha Hon]. set (L := length closed) in *.
  assert (Yi : forall i, i < L -> in_years e (fst (nth i keys kd))) by (intros i Hi; apply Hk, nth_In; rewrite Hlen; exact Hi).
  unfold collision_free_infix. rewrite !filter_files_total.
  set (rel := related_files f (fsfx (c_spec c)) (fixed0 c)).
  set (unc := filter (qf off (fsfx (c_spec c)) (fixed0 c) (IFEq (tsx e ts)) (fsfx (c_spec c))) rel).
  set (cmp := filter (qf off (fsfx (c_spec c)) (fixed0 c) (IFEq (tsx e ts)) (Some gz_sfx)) rel).
  set (sibs := filter (fun x => contains (tsx e ts ++ restart_tag) x) (unc ++ cmp)).
  (* every name of the directory *)
  assert (Dir : forall x j, lookup f x = Some j -> x = cname c \/ exists i g, lo <= i < L /\ x = add_gz g (tname c e keys i)).
  { intros x j Lj. destruct (Hon x j Lj) as [->|[(i & Hi & ->)|(i & Hi & ->)]]; [left; reflexivity | right | right].
    - exists i, false. split; [lia | reflexivity].
    - exists i, true. split; [lia | unfold gzf; rewrite add_gz_true; reflexivity]. }
  (* what is listed carries this time stamp *)
  assert (A : forall x, In x (unc ++ cmp) -> exists m g, m < n /\ x = add_gz g (kname c e (ts, m))).
  { intros x I. apply in_app_or in I.
    assert (X : exists o, In x rel /\ qf off (fsfx (c_spec c)) (fixed0 c) (IFEq (tsx e ts)) o x = true).
    { destruct I as [I|I]; apply filter_In in I; destruct I; eauto. }
    destruct X as [o [Ir Q]]. apply related_files_in in Ir. destruct Ir as [Id _].
    apply dir_names_lookup in Id. destruct Id as [j Lj].
    destruct (Dir x j Lj) as [->|(i & g & Hi & ->)]; [rewrite qf_eq_cname in Q by exact Hts; discriminate|].
    unfold tname in *. pose proof (qf_eq_upper_gz c e off ts o _ (nth i keys kd) g Hts (Yi i ltac:(lia)) eq_refl Q) as Et.
    destruct (nth i keys kd) as [t m] eqn:Ek. cbn [fst] in Et. subst t. exists m, g. split; [|rewrite ?Ek; reflexivity].
    apply Hn. rewrite <- Ek. apply nth_In. rewrite Hlen. fold L. lia. }
  (* the newest file of this second is listed *)
  assert (B : 0 < n -> exists g, In (add_gz g (kname c e (ts, n - 1))) (unc ++ cmp) /\ lookup f (add_gz g (kname c e (ts, n - 1))) <> None).
  { intros Hpos. destruct (Hnew Hpos) as (i & Hi & Ek). fold L in Hi. destruct (Nat.le_gt_cases mid i) as [Hm|Hm].
    - exists false. destruct (Hp i ltac:(fold L; lia)) as (j & Lj & [_ Dj] & _). unfold tname in Lj. rewrite Ek in Lj. cbn [add_gz].
      split; [|congruence]. apply in_or_app. left. apply filter_In. split; [|apply qf_eq_lower; exact Hts].
      apply related_files_in. split; [apply dir_names_lookup; eauto|]. split.
      + unfold is_reg_file, file_of. rewrite Lj, Dj. reflexivity.
      + rewrite kname_shape by exact Hts. apply is_prefix_under.
    - exists true. destruct (Ha i ltac:(lia)) as (j & Lj & _ & _ & Dj). unfold gzf, tname in Lj. rewrite Ek in Lj. rewrite add_gz_true.
      split; [|congruence]. apply in_or_app. right. apply filter_In. split.
      + apply related_files_in. split; [apply dir_names_lookup; eauto|]. split.
        * unfold is_reg_file, file_of. rewrite Lj, Dj. reflexivity.
        * rewrite gz_name_app, kname_shape, <- app_assoc by exact Hts. apply is_prefix_under.
      + apply qf_plain_gz_name; [apply sfx_not_gz; exact G | apply qf_eq_lower; exact Hts]. }
  (* the restart numbers found *)
  assert (R1 : forall v, In v (filter_map_opt (restart_number (tsx e ts)) sibs) -> exists i, i < n - 1 /\ v = N.of_nat i).
  { intros v Iv. apply filter_map_opt_in in Iv. destruct Iv as [x [Ix Ex]]. apply filter_In in Ix. destruct Ix as [Ix Cx].
    destruct (A x Ix) as (m & g & Hm & ->).
    destruct m as [|m]; [rewrite kname_plain_no_tag_gz in Cx by assumption; discriminate|].
    rewrite restart_number_kname_gz in Ex by (assumption || apply T || lia). injection Ex as <-. exists m. split; [lia | reflexivity]. }
  assert (R2 : 2 <= n -> In (N.of_nat (n - 2)) (filter_map_opt (restart_number (tsx e ts)) sibs) /\ sibs <> []).
  { intros H2. destruct (B ltac:(lia)) as (g & Ig & _). replace (n - 1) with (S (n - 2)) in Ig by lia.
    assert (Is : In (add_gz g (kname c e (ts, S (n - 2)))) sibs).
    { apply filter_In. split; [exact Ig | apply kname_restart_contains_gz; [apply T | exact Hts]]. }
    split; [|intros Z; rewrite Z in Is; destruct Is].
    apply filter_map_opt_in. exists (add_gz g (kname c e (ts, S (n - 2)))). split; [exact Is|].
    apply restart_number_kname_gz; [apply T | exact Hts | lia]. }
  assert (M : max_opt (filter_map_opt (restart_number (tsx e ts)) sibs) = match n - 1 with O => None | S k => Some (N.of_nat k) end).
  { pose proof (max_opt_spec (filter_map_opt (restart_number (tsx e ts)) sibs)) as MS.
    destruct (max_opt (filter_map_opt (restart_number (tsx e ts)) sibs)) as [mx|].
    - destruct MS as [Im Hm]. destruct (R1 mx Im) as (i & Hi & ->). destruct (n - 1) as [|k] eqn:En; [lia|].
      destruct (R2 ltac:(lia)) as [I2 _]. specialize (Hm _ I2). f_equal. lia.
    - destruct (n - 1) as [|k] eqn:En; [reflexivity|]. destruct (R2 ltac:(lia)) as [I2 _]. rewrite MS in I2. destruct I2. }
  rewrite M.
  change (as_name (c_spec c) (fixed0 c) (Some (tsx e ts))) with (kname c e (ts, 0)).
  set (exists_ := fun n0 : bytes => match lookup f n0 with Some _ => true | None => false end).
  destruct n as [|[|n']].
  - (* no file of this second *)
    assert (E1 : lookup f (kname c e (ts, 0)) = None).
    { destruct (lookup f (kname c e (ts, 0))) as [j|] eqn:Lj; [exfalso | reflexivity].
      destruct (Dir _ _ Lj) as [X|(i & g & Hi & X)]; [exact (kname_not_cname c e (ts, 0) Hts X)|].
      unfold tname in X. destruct g; cbn [add_gz] in X.
      - fold dot_gz in X. rewrite <- gz_name_app in X. symmetry in X. exact (gz_kname_not_kname c e _ (ts, 0) G (Yi i ltac:(lia)) Hts X).
      - apply kname_inj in X; [|exact Hts | apply Yi; lia].
        assert (I0 : In (ts, 0) keys) by (rewrite X; apply nth_In; rewrite Hlen; fold L; lia). apply Hn in I0. lia. }
    assert (E2 : lookup f (kname c e (ts, 0) ++ dot :: gz_sfx) = None).
    { fold dot_gz. rewrite <- gz_name_app.
      destruct (lookup f (gz_name (kname c e (ts, 0)))) as [j|] eqn:Lj; [exfalso | reflexivity].
      destruct (Dir _ _ Lj) as [X|(i & g & Hi & X)]; [exact (gz_kname_not_cname c e (ts, 0) Hts X)|].
      unfold tname in X. destruct g; cbn [add_gz] in X.
      - fold dot_gz in X. rewrite <- gz_name_app in X. apply gz_name_inj in X. apply kname_inj in X; [|exact Hts | apply Yi; lia].
        assert (I0 : In (ts, 0) keys) by (rewrite X; apply nth_In; rewrite Hlen; fold L; lia). apply Hn in I0. lia.
      - exact (gz_kname_not_kname c e (ts, 0) _ G Hts (Yi i ltac:(lia)) X). }
    assert (Es : sibs = []).
    { destruct sibs as [|x r] eqn:Es; [reflexivity|exfalso].
      assert (Ix : In x sibs) by (rewrite Es; left; reflexivity). apply filter_In in Ix. destruct (A x (proj1 Ix)) as (m & g & Hm & _). lia. }
    rewrite E1, E2, Es. reflexivity.
  - (* one file: <ts> or its archive *)
    destruct (B ltac:(lia)) as (g & _ & Lg). cbn [Nat.sub] in Lg.
    assert (Ex : (match lookup f (kname c e (ts, 0)) with Some _ => true | None => false end
                  || match lookup f (kname c e (ts, 0) ++ dot :: gz_sfx) with Some _ => true | None => false end) = true).
    { destruct g; cbn [add_gz] in Lg.
      - destruct (lookup f (kname c e (ts, 0) ++ dot :: gz_sfx)); [apply orb_true_r | congruence].
      - destruct (lookup f (kname c e (ts, 0))); [reflexivity | congruence]. }
    rewrite Ex. cbn [orb Nat.sub]. reflexivity.
  - destruct (R2 ltac:(lia)) as [_ Hs]. cbn [Nat.sub] in *.
    assert (Ex : match sibs with [] => false | _ :: _ => true end = true) by (destruct sibs; [congruence | reflexivity]).
    rewrite Ex, !orb_true_r.
    destruct (N.ltb_spec (N.of_nat n') usize_max) as [_|X]; [|lia].
    unfold infix_of, restart_infix. cbn [fst snd]. replace (N.of_nat n' + 1)%N with (N.of_nat (Datatypes.S n')) by lia. reflexivity.
Qed.
Print Assumptions collision_free_infix_tsk.

(* the same as the answer of the model's collision_free, for a world without faults *)
Lemma collision_free_tsk c e w (keys : list key) closed lo mid ts n :
  quiet w -> fts (c_spec c) = false -> eoff c w = e ->
  tag_ok c -> sfx_ok (c_spec c) -> in_years e ts -> (forall k, In k keys -> in_years e (fst k)) ->
  length keys = length closed -> gdir (tname c e keys) (cname c) (wfs w) closed lo mid ->
  (forall m, In (ts, m) keys <-> m < n) -> (N.of_nat n <= usize_max)%N ->
  (0 < n -> exists i, lo <= i < length closed /\ nth i keys kd = (ts, n - 1)) ->
  collision_free c w (infix_from_ts c w std_fmt ts) = (Ok (infix_of e (ts, n)), w).
Proof.
  intros Q Hts Hoff T G Yts Yk Hlen KD Hn Hmax Hnew. unfold collision_free. rewrite !tick_quiet by assumption.
  rewrite (fixed_of_fixed0 c w Hts), infix_from_ts_tsx, Hoff.
  rewrite (collision_free_infix_tsk c e (woff w) (wfs w) keys closed lo mid ts n T G Yts Yk Hlen KD Hn Hmax Hnew). reflexivity.
Qed.
