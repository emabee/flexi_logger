(* C19 with rotation and a cleanup that COMPRESSES: the executable SPECIFICATION of what a FileLogWriter with Numbers
   naming, size criterion, direct mode, cleanup KeepLogFiles a / KeepCompressedFiles b / KeepLogAndCompressedFiles a b
   (in the caller's thread), synchronous, makes of a list of records when the file-system calls fail as an arbitrary
   fault oracle says.  The refinement proof is in FaultCleanup.v (faults_cleanup_dir); FaultGz.v states it for a reader
   of the directory.  FaultCleanupSpec.v is the special case without archives (deletion only); the cases (i)-(vi)
   described there and in FaultRotSpec.v stay as they are.

   The cleanup (cleanup_impl, list_and_cleanup.rs), with ll = the number of files kept as they are and total = ll + the
   number of files kept as archives:
     1. read_dir.  The listing: the plain closed files, newest (highest number) first, THEN the archives r<i>.log.gz,
        newest first.
     2. every archive whose original is listed too (left by an interrupted compression) is removed, newest first: one
        remove_file call each; a failure ends the cleanup.
     3. the loop over the listing by POSITION k: k < ll: kept; ll <= k < total: an archive is kept, a plain file is
        compressed; total <= k: removed (one remove_file call).  The first failure ends the cleanup.
     compress_file makes five calls: create <name>.gz, open the original, copy, finish, remove the original.
        create fails: nothing has changed.   open or copy fails: the archive stays, complete but EMPTY, next to the original.
        finish or remove fails: the archive stays with the full content, next to the original.
   (Since the positions count the plain files first, an old plain file left over by a failed cleanup is compressed and
   kept while newer archives are removed: the specification follows the listing, not the numbers.)

   The closed files: pl = the plain files (index, content), ar = the archives (index, what gunzip yields), both ascending. *)
Require Import FL.Base.Bytes FL.Base.BytesFacts FL.Fs.Fs FL.Flw.Model FL.Flw.Run FL.Flw.NumRun FL.Flw.FaultFacts FL.Flw.FaultRotSpec
  FL.Flw.FaultCleanupSpec.
From Coq Require Import ZifyN ZifyNat ZifyBool.
Open Scope nat_scope.

(* ------------------------------------------------------------------ lists of (index, content) *)
Definition memi (i : nat) (l : cdir) : bool := existsb (fun p => Nat.eqb (fst p) i) l.
Definition deli (i : nat) (l : cdir) : cdir := filter (fun p => negb (Nat.eqb (fst p) i)) l.
Fixpoint insi (p : nat * bytes) (l : cdir) : cdir :=
  match l with [] => [p] | q :: r => if Nat.ltb (fst p) (fst q) then p :: l else q :: insi p r end.

(* ------------------------------------------------------------------ the cleanup *)
(* step 2: the redundant archives are removed, newest first *)
Fixpoint g_red (red : cdir) (ar : cdir) (fl : list bool) : cdir * bool * list bool :=
  match red with
  | [] => (ar, true, fl)
  | p :: r => let '(f, fl1) := pop fl in if f then (ar, false, fl1) else g_red r (deli (fst p) ar) fl1
  end.

(* the plain file (i, d) is compressed *)
Definition g_compress (i : nat) (d : bytes) (pl ar : cdir) (fl : list bool) : cdir * cdir * bool * list bool :=
  let '(f1, fl1) := pop fl in if f1 then (pl, ar, false, fl1) else                 (* create the archive *)
  let '(f2, fl2) := pop fl1 in if f2 then (pl, insi (i, []) ar, false, fl2) else   (* open the original *)
  let '(f3, fl3) := pop fl2 in if f3 then (pl, insi (i, []) ar, false, fl3) else   (* copy *)
  let '(f4, fl4) := pop fl3 in if f4 then (pl, insi (i, d) ar, false, fl4) else    (* finish *)
  let '(f5, fl5) := pop fl4 in if f5 then (pl, insi (i, d) ar, false, fl5) else    (* remove the original *)
  (deli i pl, insi (i, d) ar, true, fl5).

(* step 3: the loop over the listing; an entry: is it an archive, its index and content *)
Definition lentry := (bool * (nat * bytes))%type.
Fixpoint g_loop (files : list lentry) (k ll total : nat) (pl ar : cdir) (fl : list bool) : cdir * cdir * bool * list bool :=
  match files with
  | [] => (pl, ar, true, fl)
  | (g, (i, d)) :: r =>
    if Nat.leb total k then
      let '(f, fl1) := pop fl in
      if f then (pl, ar, false, fl1)
      else g_loop r (S k) ll total (if g then pl else deli i pl) (if g then deli i ar else ar) fl1
    else if Nat.leb ll k then
      if g then g_loop r (S k) ll total pl ar fl
      else let '(pl1, ar1, ok, fl1) := g_compress i d pl ar fl in
           if ok then g_loop r (S k) ll total pl1 ar1 fl1 else (pl1, ar1, false, fl1)
    else g_loop r (S k) ll total pl ar fl
  end.

Definition g_listing (pl ar : cdir) : list lentry := List.map (pair false) (rev pl) ++ List.map (pair true) (rev ar).
Definition g_redundant (pl ar : cdir) : cdir := filter (fun a => memi (fst a) pl) (rev ar).

Definition g_cleanup (ll total : nat) (pl ar : cdir) (fl : list bool) : cdir * cdir * bool * list bool :=
  let '(f0, fl0) := pop fl in                                         (* read_dir *)
  if f0 then (pl, ar, false, fl0) else
  let '(ar1, ok0, fl1) := g_red (g_redundant pl ar) ar fl0 in
  if negb ok0 then (pl, ar1, false, fl1) else
  g_loop (g_listing pl ar1) 0 ll total pl ar1 fl1.

(* ------------------------------------------------------------------ the writer *)
Inductive gst :=
| GInit (pl ar : cdir) (created : bool)
| GCur (pl ar : cdir) (idx : nat) (d : bytes)
| GOld (pl ar : cdir) (idx : nat) (d : bytes).

Definition g_active (m : N) (ll total : nat) (old : bool) (pl ar : cdir) (idx : nat) (d b : bytes) (fl : list bool)
  : gst * list ecode * list bool :=
  let same d' := if old then GOld pl ar idx d' else GCur pl ar idx d' in
  if (m <? N.of_nat (length d))%N then
    let '(f1, fl1) := pop fl in                               (* rename rCURRENT -> r<idx> *)
    if f1 then let '(d', e, fl2) := s_write d b fl1 in (same d', ELogFile :: e, fl2)
    else
      let '(f2, fl2) := pop fl1 in                            (* create the new rCURRENT *)
      if f2 then let '(d', e, fl3) := s_write d b fl2 in (GOld pl ar idx d', ELogFile :: e, fl3)
      else
        let '(pl2, ar2, ok, fl3) := g_cleanup ll total (pl ++ [(idx, d)]) ar fl2 in
        let '(d', e, fl4) := s_write [] b fl3 in
        (GCur pl2 ar2 (S idx) d', (if ok then [] else [ELogFile]) ++ e, fl4)
  else let '(d', e, fl1) := s_write d b fl in (same d', e, fl1).

(* the index a (re-)initialisation finds: the highest one among plain files and archives + 1 *)
Definition g_next (pl ar : cdir) : nat := Nat.max (next_idx pl) (next_idx ar).

Definition g_init (ap : bool) (m : N) (ll total : nat) (pl ar : cdir) (created : bool) (b : bytes) (fl : list bool)
  : gst * list ecode * list bool :=
  let '(f1, fl1) := pop fl in                                 (* read_dir *)
  if f1 then (GInit pl ar created, [EWrite], fl1) else
  let idx := g_next pl ar in
  let '(f2, fl2) := if ap then (false, fl1) else pop fl1 in   (* rename of an old rCURRENT (not with append) *)
  if f2 then (GInit pl ar created, [EWrite], fl2) else
  let pl1 := if ap then pl else if created then pl ++ [(idx, [])] else pl in
  let idx1 := if ap then idx else if created then S idx else idx in
  let created1 := if ap then created else false in
  let '(f3, fl3) := pop fl2 in                                (* open/create rCURRENT *)
  if f3 then (GInit pl1 ar created1, [EWrite], fl3) else
  let '(f4, fl4) := if ap then pop fl3 else (false, fl3) in   (* metadata (with append) *)
  if f4 then (GInit pl1 ar true, [EWrite], fl4) else
  let '(pl2, ar2, ok, fl5) := g_cleanup ll total pl1 ar fl4 in
  if ok then g_active m ll total false pl2 ar2 idx1 [] b fl5 else (GInit pl2 ar2 true, [EWrite], fl5).

Definition gstep (ap : bool) (m : N) (ll total : nat) (st : gst) (fl : list bool) (b : bytes) : gst * list ecode * list bool :=
  match st with
  | GInit pl ar created => g_init ap m ll total pl ar created b fl
  | GCur pl ar idx d => g_active m ll total false pl ar idx d b fl
  | GOld pl ar idx d => g_active m ll total true pl ar idx d b fl
  end.

Fixpoint simg_st (ap : bool) (m : N) (ll total : nat) (st : gst) (fl : list bool) (recs : list bytes) : gst * list ecode * list bool :=
  match recs with
  | [] => (st, [], fl)
  | b :: rest =>
    let '(st1, e1, fl1) := gstep ap m ll total st fl b in
    let '(st2, e2, fl2) := simg_st ap m ll total st1 fl1 rest in (st2, e1 ++ e2, fl2)
  end.

Definition g_plain (st : gst) : cdir :=
  match st with GInit pl _ _ => pl | GCur pl _ _ _ => pl | GOld pl _ idx d => pl ++ [(idx, d)] end.
Definition g_arch (st : gst) : cdir := match st with GInit _ ar _ => ar | GCur _ ar _ _ => ar | GOld _ ar _ _ => ar end.
Definition g_cur (st : gst) : option bytes :=
  match st with GInit _ _ created => if created then Some [] else None | GCur _ _ _ d => Some d | GOld _ _ _ _ => None end.

(* the specification: plain closed files, archives, current file, reported errors, the rest of the oracle *)
Definition simg (ap : bool) (m : N) (ll total : nat) (fl : list bool) (recs : list bytes)
  : cdir * cdir * option bytes * list ecode * list bool :=
  let '(st, e, fl') := simg_st ap m ll total (GInit [] [] false) fl recs in (g_plain st, g_arch st, g_cur st, e, fl').

(* ------------------------------------------------------------------ facts on deli / insi / memi *)
Lemma memi_true i l : memi i l = true <-> exists d, In (i, d) l.
Proof.
  unfold memi. rewrite existsb_exists. split.
  - intros [[j d] [Hin E]]. cbn [fst] in E. apply Nat.eqb_eq in E. subst j. eauto.
  - intros [d Hin]. exists (i, d). split; [exact Hin | apply Nat.eqb_refl].
Qed.
Lemma memi_false i l : memi i l = false <-> forall d, ~ In (i, d) l.
Proof.
  split.
  - intros H d Hin. assert (X : memi i l = true) by (apply memi_true; eauto). congruence.
  - intros H. destruct (memi i l) eqn:E; [|reflexivity]. apply memi_true in E. destruct E as [d Hd]. exfalso. exact (H d Hd).
Qed.
Lemma deli_in i l (p : nat * bytes) : In p (deli i l) <-> In p l /\ fst p <> i.
Proof. unfold deli. rewrite filter_In, Bool.negb_true_iff, Nat.eqb_neq. reflexivity. Qed.
Lemma insi_in q l (p : nat * bytes) : In p (insi q l) <-> p = q \/ In p l.
Proof.
  induction l as [|x l IH]; cbn [insi In]; [intuition congruence|].
  destruct (Nat.ltb (fst q) (fst x)); cbn [In]; [intuition congruence|]. rewrite IH. intuition congruence.
Qed.
Lemma insi_length q l : length (insi q l) = S (length l).
Proof. induction l as [|x l IH]; cbn [insi length]; [reflexivity|]. destruct (Nat.ltb (fst q) (fst x)); cbn [length]; lia. Qed.

(* ------------------------------------------------------------------ the cleanup only deletes and compresses *)
Lemma g_red_incl : forall red (ar : cdir) fl p, In p (fst (fst (g_red red ar fl))) -> In p ar.
Proof.
  induction red as [|a r IH]; intros ar fl p; cbn [g_red]; [cbn [fst]; auto|].
  destruct (pop fl) as [t fl1]. destruct t; cbn [fst]; [auto|]. intros H. apply IH in H. apply deli_in in H. exact (proj1 H).
Qed.

(* an archive that a compression leaves holds the content of its original, or nothing (the compression was interrupted) *)
Definition arch_of (pl : cdir) (p : nat * bytes) : Prop := exists d, In (fst p, d) pl /\ (snd p = d \/ snd p = []).

Lemma g_compress_incl i (d : bytes) (pl0 pl ar : cdir) fl : In (i, d) pl0 ->
  (forall p, In p (fst (fst (fst (g_compress i d pl ar fl)))) -> In p pl)
  /\ (forall p, In p (snd (fst (fst (g_compress i d pl ar fl)))) -> In p ar \/ arch_of pl0 p).
Proof.
  intros Hi. unfold g_compress.
  assert (A : forall g p, (g = d \/ g = []) -> In p (insi (i, g) ar) -> In p ar \/ arch_of pl0 p).
  { intros g p Hg Hp. apply insi_in in Hp. destruct Hp as [->|Hp]; [|left; exact Hp]. right. exists d. cbn [fst snd]. split; [exact Hi | exact Hg]. }
  destruct (pop fl) as [t1 fl1]. destruct t1; cbn [fst snd]; [split; auto|].
  destruct (pop fl1) as [t2 fl2]. destruct t2; cbn [fst snd]; [split; [auto | intros p; apply A; right; reflexivity]|].
  destruct (pop fl2) as [t3 fl3]. destruct t3; cbn [fst snd]; [split; [auto | intros p; apply A; right; reflexivity]|].
  destruct (pop fl3) as [t4 fl4]. destruct t4; cbn [fst snd]; [split; [auto | intros p; apply A; left; reflexivity]|].
  destruct (pop fl4) as [t5 fl5]. destruct t5; cbn [fst snd]; [split; [auto | intros p; apply A; left; reflexivity]|].
  split; [intros p Hp; apply deli_in in Hp; exact (proj1 Hp) | intros p; apply A; left; reflexivity].
Qed.

Lemma g_loop_incl ll total (pl0 : cdir) : forall files k (pl ar : cdir) fl,
  (forall i d, In (false, (i, d)) files -> In (i, d) pl0) ->
  (forall p, In p (fst (fst (fst (g_loop files k ll total pl ar fl)))) -> In p pl)
  /\ (forall p, In p (snd (fst (fst (g_loop files k ll total pl ar fl)))) -> In p ar \/ arch_of pl0 p).
Proof.
  induction files as [|[g [i d]] r IH]; intros k pl ar fl Hf; cbn [g_loop]; [cbn [fst snd]; split; auto|].
  assert (Hr : forall i' d', In (false, (i', d')) r -> In (i', d') pl0) by (intros i' d' H; apply Hf; right; exact H).
  destruct (Nat.leb total k).
  - destruct (pop fl) as [t fl1]. destruct t; cbn [fst snd]; [split; auto|].
    destruct (IH (S k) (if g then pl else deli i pl) (if g then deli i ar else ar) fl1 Hr) as [I1 I2]. split.
    + intros p Hp. apply I1 in Hp. destruct g; [exact Hp | apply deli_in in Hp; exact (proj1 Hp)].
    + intros p Hp. destruct (I2 p Hp) as [H|H]; [left | right; exact H]. destruct g; [apply deli_in in H; exact (proj1 H) | exact H].
  - destruct (Nat.leb ll k); [|exact (IH (S k) pl ar fl Hr)].
    destruct g; [exact (IH (S k) pl ar fl Hr)|].
    destruct (g_compress_incl i d pl0 pl ar fl (Hf i d (or_introl eq_refl))) as [C1 C2].
    destruct (g_compress i d pl ar fl) as [[[pl1 ar1] ok] fl1]. cbn [fst snd] in C1, C2. destruct ok; [|cbn [fst snd]; split; assumption].
    destruct (IH (S k) pl1 ar1 fl1 Hr) as [I1 I2]. split.
    + intros p Hp. apply C1, I1, Hp.
    + intros p Hp. destruct (I2 p Hp) as [H|H]; [exact (C2 p H) | right; exact H].
Qed.

(* what a cleanup leaves: plain files that were there; archives that were there, or that were made of plain files that
   were there *)
Theorem g_cleanup_incl ll total (pl ar : cdir) fl :
  (forall p, In p (fst (fst (fst (g_cleanup ll total pl ar fl)))) -> In p pl)
  /\ (forall p, In p (snd (fst (fst (g_cleanup ll total pl ar fl)))) -> In p ar \/ arch_of pl p).
Proof.
  unfold g_cleanup. destruct (pop fl) as [t0 fl0]. destruct t0; cbn [fst snd]; [split; auto|].
  pose proof (g_red_incl (g_redundant pl ar) ar fl0) as R. destruct (g_red (g_redundant pl ar) ar fl0) as [[ar1 ok0] fl1]. cbn [fst] in R.
  destruct ok0; cbn [negb fst snd]; [|split; [auto | intros p Hp; left; exact (R p Hp)]].
  destruct (g_loop_incl ll total pl (g_listing pl ar1) 0 pl ar1 fl1) as [I1 I2].
  { intros i d Hi. unfold g_listing in Hi. apply in_app_or in Hi. destruct Hi as [Hi|Hi]; apply in_map_iff in Hi; destruct Hi as [x [E Hx]]; [|discriminate].
    injection E as ->. apply in_rev in Hx. exact Hx. }
  split; [exact I1|]. intros p Hp. destruct (I2 p Hp) as [H|H]; [left; exact (R p H) | right; exact H].
Qed.

(* ------------------------------------------------------------------ the oracle entries the cleanup consumes *)
Lemma g_red_acct : forall red (ar : cdir) fl, acct fl (snd (g_red red ar fl)) (okn (snd (fst (g_red red ar fl)))).
Proof.
  induction red as [|a r IH]; intros ar fl; cbn [g_red]; [cbn [fst snd]; apply acct_refl|].
  pose proof (pop_used fl) as P. destruct (pop fl) as [t fl1]. cbn [fst snd] in P. destruct t; cbn [fst snd]; [exact P|].
  exact (acct_trans _ _ _ _ _ P (IH (deli (fst a) ar) fl1)).
Qed.

Lemma g_compress_acct i (d : bytes) (pl ar : cdir) fl :
  acct fl (snd (g_compress i d pl ar fl)) (okn (snd (fst (g_compress i d pl ar fl)))).
Proof.
  unfold g_compress.
  pose proof (pop_used fl) as P1. destruct (pop fl) as [t1 fl1]. cbn [fst snd] in P1. destruct t1; cbn [fst snd]; [exact P1|].
  pose proof (acct_trans _ _ _ _ _ P1 (pop_used fl1)) as P2. destruct (pop fl1) as [t2 fl2]. cbn [fst snd] in P2. destruct t2; cbn [fst snd]; [exact P2|].
  pose proof (acct_trans _ _ _ _ _ P2 (pop_used fl2)) as P3. destruct (pop fl2) as [t3 fl3]. cbn [fst snd] in P3. destruct t3; cbn [fst snd]; [exact P3|].
  pose proof (acct_trans _ _ _ _ _ P3 (pop_used fl3)) as P4. destruct (pop fl3) as [t4 fl4]. cbn [fst snd] in P4. destruct t4; cbn [fst snd]; [exact P4|].
  pose proof (acct_trans _ _ _ _ _ P4 (pop_used fl4)) as P5. destruct (pop fl4) as [t5 fl5]. cbn [fst snd] in P5. destruct t5; cbn [fst snd]; exact P5.
Qed.

Lemma g_loop_acct ll total : forall files k (pl ar : cdir) fl,
  acct fl (snd (g_loop files k ll total pl ar fl)) (okn (snd (fst (g_loop files k ll total pl ar fl)))).
Proof.
  induction files as [|[g [i d]] r IH]; intros k pl ar fl; cbn [g_loop]; [cbn [fst snd]; apply acct_refl|].
  destruct (Nat.leb total k).
  - pose proof (pop_used fl) as P. destruct (pop fl) as [t fl1]. cbn [fst snd] in P. destruct t; cbn [fst snd]; [exact P|].
    exact (acct_trans _ _ _ _ _ P (IH (S k) _ _ fl1)).
  - destruct (Nat.leb ll k); [|apply IH]. destruct g; [apply IH|].
    pose proof (g_compress_acct i d pl ar fl) as P. destruct (g_compress i d pl ar fl) as [[[pl1 ar1] ok] fl1]. cbn [fst snd] in P.
    destruct ok; cbn [fst snd]; [|exact P]. exact (acct_trans _ _ _ _ _ P (IH (S k) pl1 ar1 fl1)).
Qed.

(* a cleanup consumes exactly one failing entry iff it fails *)
Theorem g_cleanup_acct ll total (pl ar : cdir) fl :
  acct fl (snd (g_cleanup ll total pl ar fl)) (okn (snd (fst (g_cleanup ll total pl ar fl)))).
Proof.
  unfold g_cleanup. pose proof (pop_used fl) as P0. destruct (pop fl) as [t0 fl0]. cbn [fst snd] in P0. destruct t0; cbn [fst snd]; [exact P0|].
  pose proof (g_red_acct (g_redundant pl ar) ar fl0) as P1. destruct (g_red (g_redundant pl ar) ar fl0) as [[ar1 ok0] fl1]. cbn [fst snd] in P1.
  destruct ok0; cbn [negb fst snd]; [|exact (acct_trans _ _ _ _ _ P0 P1)].
  exact (acct_trans _ _ _ _ _ (acct_trans _ _ _ _ _ P0 P1) (g_loop_acct ll total _ 0 pl ar1 fl1)).
Qed.

(* ------------------------------------------------------------------ one record *)
Definition g_wcur (st : gst) : bytes := match st with GInit _ _ _ => [] | GCur _ _ _ d => d | GOld _ _ _ d => d end.
Definition g_pl (st : gst) : cdir := match st with GInit pl _ _ => pl | GCur pl _ _ _ => pl | GOld pl _ _ _ => pl end.
(* the file that the step closes for good (a completed rotation) *)
Definition gcloses (st st' : gst) : cdir :=
  match st, st' with
  | GCur _ _ idx d, GCur _ _ idx' _ => if Nat.eqb idx idx' then [] else [(idx, d)]
  | GOld _ _ idx d, GCur _ _ idx' _ => if Nat.eqb idx idx' then [] else [(idx, d)]
  | _, _ => []
  end.

(* what one step does: the oracle entries it uses, one report per failing entry, at most one record lost - and then
   reported with EWrite -; the LOG (the files closed so far, then the writer's file) grows by exactly the record unless
   it is lost; every plain closed file and every archive in the directory is a file that was closed, with its content,
   or is empty (left by a failed initialisation / an interrupted compression): the cleanup only deletes and compresses *)
Definition gstep_ok (st : gst) (fl : list bool) (b : bytes) (r : gst * list ecode * list bool) : Prop :=
  let '(st', e, fl') := r in
  acct fl fl' (length e) /\ nlost e <= 1
  /\ concat (List.map snd (gcloses st st')) ++ g_wcur st' = g_wcur st ++ (if lost e then [] else b)
  /\ (forall p, In p (g_pl st') -> In p (g_pl st) \/ In p (gcloses st st') \/ snd p = [])
  /\ (forall p, In p (g_arch st') -> In p (g_arch st) \/ In p (g_pl st) \/ In p (gcloses st st') \/ snd p = []).

Lemma g_active_ok m ll total (old : bool) (pl ar : cdir) idx (d b : bytes) fl :
  gstep_ok (if old then GOld pl ar idx d else GCur pl ar idx d) fl b (g_active m ll total old pl ar idx d b fl).
Proof.
  set (st := if old then GOld pl ar idx d else GCur pl ar idx d).
  assert (Wst : g_wcur st = d) by (unfold st; destruct old; reflexivity).
  assert (Cst : g_pl st = pl) by (unfold st; destruct old; reflexivity).
  assert (Ast : g_arch st = ar) by (unfold st; destruct old; reflexivity).
  (* the record is written into the old file: the state keeps its shape *)
  assert (W : forall fl0 errs0 (old' : bool), acct fl fl0 (length errs0) -> lost errs0 = false -> nlost errs0 = 0 ->
     (old = true -> old' = true) ->
     let '(d', e, fl1) := s_write d b fl0 in
     gstep_ok st fl b ((if old' then GOld pl ar idx d' else GCur pl ar idx d'), errs0 ++ e, fl1)).
  { intros fl0 errs0 old' Hac Hl Hnl Ho. pose proof (s_write_facts d b fl0) as S. pose proof (acct_write d b fl0) as Aw.
    destruct (s_write d b fl0) as [[d' e] fl1]. cbn [fst snd] in Aw. destruct S as [Hc Hd].
    split; [rewrite app_length; exact (acct_trans _ _ _ _ _ Hac Aw)|].
    split; [rewrite nlost_app; destruct Hc as [->| ->]; cbn; lia|].
    rewrite (lost_app_nolost _ _ Hl), Wst, Cst, Ast.
    assert (Ecl : gcloses st (if old' then GOld pl ar idx d' else GCur pl ar idx d') = []).
    { unfold st. destruct old, old'; cbn [gcloses]; rewrite ?Nat.eqb_refl; reflexivity. }
    rewrite Ecl. cbn [List.map concat app]. split; [destruct old'; cbn [g_wcur]; exact Hd|].
    split; intros p Hp; left; destruct old'; exact Hp. }
  unfold g_active. fold st.
  destruct (m <? N.of_nat (length d))%N.
  - pose proof (pop_used fl) as P1. destruct (pop fl) as [f1 fl1]. cbn [fst snd] in P1. destruct f1.
    + pose proof (W fl1 [ELogFile] old P1 eq_refl eq_refl (fun H => H)) as S. destruct (s_write d b fl1) as [[d' e] fl2]. exact S.
    + pose proof (acct_trans _ _ _ _ _ P1 (pop_used fl1)) as P2. destruct (pop fl1) as [f2 fl2]. cbn [fst snd] in P2. destruct f2.
      * pose proof (W fl2 [ELogFile] true P2 eq_refl eq_refl (fun _ => eq_refl)) as S. destruct (s_write d b fl2) as [[d' e] fl3]. exact S.
      * (* the rotation is completed; the cleanup; the write into the new file *)
        pose proof (g_cleanup_acct ll total (pl ++ [(idx, d)]) ar fl2) as Ac. destruct (g_cleanup_incl ll total (pl ++ [(idx, d)]) ar fl2) as [CI1 CI2].
        destruct (g_cleanup ll total (pl ++ [(idx, d)]) ar fl2) as [[[pl2 ar2] ok] fl3]. cbn [fst snd] in Ac, CI1, CI2.
        pose proof (s_write_facts [] b fl3) as S. pose proof (acct_write [] b fl3) as Aw.
        destruct (s_write [] b fl3) as [[d' e] fl4]. cbn [fst snd] in Aw. destruct S as [Hc Hd].
        assert (Eok : length (if ok then [] else [ELogFile]) = okn ok /\ lost (if ok then [] else [ELogFile]) = false
                      /\ nlost (if ok then @nil ecode else [ELogFile]) = 0) by (destruct ok; repeat split).
        destruct Eok as [E1 [E2 E3]].
        split. { rewrite app_length, E1. pose proof (acct_trans _ _ _ _ _ (acct_trans _ _ _ _ _ P2 Ac) Aw) as X. cbn [Nat.add] in X. exact X. }
        split; [rewrite nlost_app, E3; destruct Hc as [->| ->]; cbn; lia|].
        rewrite (lost_app_nolost _ _ E2).
        assert (Ecl : gcloses st (GCur pl2 ar2 (S idx) d') = [(idx, d)]).
        { unfold st. destruct old; cbn [gcloses]; rewrite (proj2 (Nat.eqb_neq idx (S idx))) by lia; reflexivity. }
        rewrite Ecl, Wst, Cst, Ast. cbn [List.map concat snd g_wcur g_pl g_arch]. rewrite app_nil_r, Hd.
        split; [reflexivity|]. split.
        -- intros p Hp. specialize (CI1 p Hp). apply in_app_or in CI1. destruct CI1 as [H|[<-|[]]]; [left; exact H | right; left; left; reflexivity].
        -- intros p Hp. destruct (CI2 p Hp) as [H|[d0 [Hd0 [E|E]]]]; [left; exact H | | right; right; right; exact E].
           assert (Ep : p = (fst p, d0)) by (rewrite <- E; destruct p; reflexivity). rewrite <- Ep in Hd0.
           apply in_app_or in Hd0. destruct Hd0 as [H|[<-|[]]]; [right; left; exact H | right; right; left; left; reflexivity].
  - pose proof (W fl [] old (acct_refl fl) eq_refl eq_refl (fun H => H)) as S. destruct (s_write d b fl) as [[d' e] fl1]. exact S.
Qed.

Lemma g_init_ok ap m ll total (pl ar : cdir) created (b : bytes) fl :
  gstep_ok (GInit pl ar created) fl b (g_init ap m ll total pl ar created b fl).
Proof.
  (* a failing step of the initialisation *)
  assert (Fail : forall fl' (pl' ar' : cdir) cr, acct fl fl' 1 ->
            (forall p, In p pl' -> In p pl \/ snd p = []) -> (forall p, In p ar' -> In p ar \/ In p pl \/ snd p = []) ->
            gstep_ok (GInit pl ar created) fl b (GInit pl' ar' cr, [EWrite], fl')).
  { intros fl' pl' ar' cr Hac Hp Ha. split; [exact Hac|]. split; [cbn; lia|]. split; [reflexivity|]. cbn [g_pl g_arch gcloses]. split.
    - intros p H. destruct (Hp p H) as [X|X]; [left; exact X | right; right; exact X].
    - intros p H. destruct (Ha p H) as [X|[X|X]]; [left; exact X | right; left; exact X | right; right; right; exact X]. }
  assert (Go : forall fl' (pl' ar' : cdir) idx', acct fl fl' 0 ->
            (forall p, In p pl' -> In p pl \/ snd p = []) -> (forall p, In p ar' -> In p ar \/ In p pl \/ snd p = []) ->
            gstep_ok (GInit pl ar created) fl b (g_active m ll total false pl' ar' idx' [] b fl')).
  { intros fl' pl' ar' idx' Hac Hp Ha. pose proof (g_active_ok m ll total false pl' ar' idx' [] b fl') as K. cbv iota in K.
    destruct (g_active m ll total false pl' ar' idx' [] b fl') as [[st' e] fl2]. destruct K as [Hk [Hl [Hst [Hpl Har]]]].
    split; [exact (acct_trans _ _ _ _ _ Hac Hk)|]. split; [exact Hl|].
    assert (Ecl : forall p, In p (gcloses (GCur pl' ar' idx' []) st') -> snd p = []).
    { intros p H. destruct st' as [| pl3 ar3 idx3 d3|]; cbn [gcloses] in H; try contradiction.
      destruct (Nat.eqb idx' idx3); [contradiction|]. destruct H as [<-|[]]. reflexivity. }
    assert (Ecc : concat (List.map snd (gcloses (GCur pl' ar' idx' []) st')) = []).
    { destruct st' as [| pl3 ar3 idx3 d3|]; cbn [gcloses]; try reflexivity. destruct (Nat.eqb idx' idx3); reflexivity. }
    rewrite Ecc in Hst. cbn [g_wcur Datatypes.app] in *. split; [cbn [gcloses List.map concat Datatypes.app]; exact Hst|].
    cbn [g_pl g_arch gcloses] in *. split.
    - intros p H. destruct (Hpl p H) as [X|[X|X]]; [destruct (Hp p X) as [Y|Y]; [left; exact Y | right; right; exact Y] | right; right; exact (Ecl p X) | right; right; exact X].
    - intros p H. destruct (Har p H) as [X|[X|[X|X]]].
      + destruct (Ha p X) as [Y|[Y|Y]]; [left; exact Y | right; left; exact Y | right; right; right; exact Y].
      + destruct (Hp p X) as [Y|Y]; [right; left; exact Y | right; right; right; exact Y].
      + right; right; right; exact (Ecl p X).
      + right; right; right; exact X. }
  set (idx := g_next pl ar).
  set (pl1 := if ap then pl else if created then pl ++ [(idx, [])] else pl).
  assert (Hpl1 : forall p, In p pl1 -> In p pl \/ snd p = []).
  { unfold pl1. intros p Hp. destruct ap; [left; exact Hp|]. destruct created; [|left; exact Hp].
    apply in_app_or in Hp. destruct Hp as [H|[<-|[]]]; [left; exact H | right; reflexivity]. }
  assert (Hid : forall p, In p pl -> In p pl \/ snd p = []) by (intros p Hp; left; exact Hp).
  assert (Har0 : forall p, In p ar -> In p ar \/ In p pl \/ snd p = []) by (intros p Hp; left; exact Hp).
  unfold g_init. fold idx. fold pl1.
  pose proof (pop_used fl) as P1. destruct (pop fl) as [f1 fl1]. cbn [fst snd] in P1. destruct f1; [apply Fail; assumption|].
  pose proof (acct_trans _ _ _ _ _ P1 (proj2 (pop_if_used ap fl1))) as P2.
  destruct (if ap then (false, fl1) else pop fl1) as [f2 fl2]. cbn [fst snd] in P2. destruct f2; [apply Fail; assumption|].
  pose proof (acct_trans _ _ _ _ _ P2 (pop_used fl2)) as P3. destruct (pop fl2) as [f3 fl3]. cbn [fst snd] in P3.
  destruct f3; [apply Fail; assumption|].
  pose proof (acct_trans _ _ _ _ _ P3 (proj1 (pop_if_used ap fl3))) as P4.
  destruct (if ap then pop fl3 else (false, fl3)) as [f4 fl4]. cbn [fst snd] in P4. destruct f4; [apply Fail; assumption|].
  pose proof (g_cleanup_acct ll total pl1 ar fl4) as Ac. destruct (g_cleanup_incl ll total pl1 ar fl4) as [CI1 CI2].
  destruct (g_cleanup ll total pl1 ar fl4) as [[[pl2 ar2] ok] fl5]. cbn [fst snd] in Ac, CI1, CI2.
  assert (Hp2 : forall p, In p pl2 -> In p pl \/ snd p = []) by (intros p Hp; apply Hpl1, CI1, Hp).
  assert (Ha2 : forall p, In p ar2 -> In p ar \/ In p pl \/ snd p = []).
  { intros p Hp. destruct (CI2 p Hp) as [H|[d0 [Hd0 [E|E]]]]; [left; exact H | | right; right; exact E].
    assert (Ep : p = (fst p, d0)) by (rewrite <- E; destruct p; reflexivity). rewrite <- Ep in Hd0.
    destruct (Hpl1 p Hd0) as [X|X]; [right; left; exact X | right; right; exact X]. }
  pose proof (acct_trans _ _ _ _ _ P4 Ac) as P5. cbn [Nat.add] in P5.
  destruct ok; [apply Go; assumption | apply Fail; assumption].
Qed.

Theorem gstep_is_ok ap m ll total st fl b : gstep_ok st fl b (gstep ap m ll total st fl b).
Proof.
  destruct st as [pl ar created|pl ar idx d|pl ar idx d]; cbn [gstep].
  - apply g_init_ok.
  - apply (g_active_ok m ll total false pl ar idx d b fl).
  - apply (g_active_ok m ll total true pl ar idx d b fl).
Qed.

(* ------------------------------------------------------------------ whole lists of records *)
Fixpoint glog (ap : bool) (m : N) (ll total : nat) (st : gst) (fl : list bool) (recs : list bytes) : cdir :=
  match recs with
  | [] => []
  | b :: rest => let '(st1, _, fl1) := gstep ap m ll total st fl b in gcloses st st1 ++ glog ap m ll total st1 fl1 rest
  end.
Fixpoint gtrace (ap : bool) (m : N) (ll total : nat) (st : gst) (fl : list bool) (recs : list bytes) : list entry :=
  match recs with
  | [] => []
  | b :: rest =>
    let '(st1, e1, fl1) := gstep ap m ll total st fl b in
    {| t_rec := b; t_errs := e1; t_used := firstn (length fl - length fl1) fl |} :: gtrace ap m ll total st1 fl1 rest
  end.

(* The run as a specification of the family FaultRotSpec.spec: its state carries the files closed for good so far; their
   contents, then the content of the file the writer writes into, are the stream *)
Definition gstream (s : cdir * gst) : bytes := concat (List.map snd (fst s)) ++ g_wcur (snd s).
Definition gstep_log (ap : bool) (m : N) (ll total : nat) (s : cdir * gst) (fl : list bool) (b : bytes)
  : (cdir * gst) * list ecode * list bool :=
  let '(st', e, fl') := gstep ap m ll total (snd s) fl b in ((fst s ++ gcloses (snd s) st', st'), e, fl').
Definition simg_log (ap : bool) (m : N) (ll total : nat) (s : cdir * gst) (fl : list bool) (recs : list bytes)
  : (cdir * gst) * list ecode * list bool :=
  let '(st', e, fl') := simg_st ap m ll total (snd s) fl recs in ((fst s ++ glog ap m ll total (snd s) fl recs, st'), e, fl').

Lemma simg_log_nil ap m ll total s fl : simg_log ap m ll total s fl [] = (s, [], fl).
Proof. destruct s as [lg st]. unfold simg_log. cbn [simg_st glog fst snd]. rewrite app_nil_r. reflexivity. Qed.
Lemma simg_log_cons ap m ll total s fl b rest : simg_log ap m ll total s fl (b :: rest) =
  let '(s1, e1, fl1) := gstep_log ap m ll total s fl b in
  let '(s2, e2, fl2) := simg_log ap m ll total s1 fl1 rest in (s2, e1 ++ e2, fl2).
Proof.
  unfold simg_log, gstep_log. cbn [simg_st glog]. destruct (gstep ap m ll total (snd s) fl b) as [[st1 e1] fl1]. cbn [fst snd].
  destruct (simg_st ap m ll total st1 fl1 rest) as [[st2 e2] fl2]. rewrite app_assoc. reflexivity.
Qed.
Lemma gtrace_log_cons ap m ll total (s : cdir * gst) fl b rest : gtrace ap m ll total (snd s) fl (b :: rest) =
  let '(s1, e1, fl1) := gstep_log ap m ll total s fl b in
  {| t_rec := b; t_errs := e1; t_used := firstn (length fl - length fl1) fl |} :: gtrace ap m ll total (snd s1) fl1 rest.
Proof. unfold gstep_log. cbn [gtrace]. destruct (gstep ap m ll total (snd s) fl b) as [[st1 e1] fl1]. reflexivity. Qed.
Lemma gstep_log_ok ap m ll total s fl b : stream_step_ok gstream s fl b (gstep_log ap m ll total s fl b).
Proof.
  unfold gstep_log. pose proof (gstep_is_ok ap m ll total (snd s) fl b) as K. destruct (gstep ap m ll total (snd s) fl b) as [[st' e] fl'].
  destruct K as [[used [Hu He]] [Hl [Hs _]]]. exists used. split; [exact Hu|]. split; [symmetry; exact He|]. split; [exact Hl|].
  unfold gstream. cbn [fst snd]. rewrite map_app, concat_app, <- !app_assoc, Hs. reflexivity.
Qed.

Definition gz_spec (ap : bool) (m : N) (ll total : nat) : spec :=
  {| sp_adv := fun (c : unit) (_ : bytes) => c; sp_bytes := fun b => b; sp_stream := gstream;
     sp_step := fun _ => gstep_log ap m ll total; sp_sim := fun _ => simg_log ap m ll total;
     sp_trace := fun _ s => gtrace ap m ll total (snd s);
     sp_sim_nil := fun _ => simg_log_nil ap m ll total; sp_sim_cons := fun _ => simg_log_cons ap m ll total;
     sp_trace_nil := fun _ _ _ => eq_refl; sp_trace_cons := fun _ => gtrace_log_cons ap m ll total;
     sp_step_ok := fun _ => gstep_log_ok ap m ll total |}.

Lemma simg_st_app ap m ll total : forall recs1 recs2 st fl,
  simg_st ap m ll total st fl (recs1 ++ recs2)
  = let '(st1, e1, fl1) := simg_st ap m ll total st fl recs1 in
    let '(st2, e2, fl2) := simg_st ap m ll total st1 fl1 recs2 in (st2, e1 ++ e2, fl2).
Proof.
  intros recs1 recs2 st fl. pose proof (sim_app_gen (gz_spec ap m ll total) recs1 recs2 tt ([], st) fl) as A.
  cbn [gz_spec sp_sim sp_rec] in A. unfold simg_log in A. cbn [fst snd] in A.
  destruct (simg_st ap m ll total st fl (recs1 ++ recs2)) as [[st3 e3] fl3]. destruct (simg_st ap m ll total st fl recs1) as [[st1 e1] fl1].
  cbn [fst snd] in A. destruct (simg_st ap m ll total st1 fl1 recs2) as [[st2 e2] fl2]. injection A as _ -> -> ->. reflexivity.
Qed.

(* the files closed for good only become more; every plain closed file in the directory was there before, is one of them,
   or is empty; every archive was there before, is the archive of such a file, or is empty *)
Definition gfiles_from (a b : cdir * gst) : Prop :=
  (forall p, In p (fst a) -> In p (fst b))
  /\ (forall p, In p (g_pl (snd b)) -> In p (g_pl (snd a)) \/ In p (fst b) \/ snd p = [])
  /\ (forall p, In p (g_arch (snd b)) -> In p (g_arch (snd a)) \/ In p (g_pl (snd a)) \/ In p (fst b) \/ snd p = []).

Lemma simg_log_files ap m ll total recs s fl : gfiles_from s (fst (fst (simg_log ap m ll total s fl recs))).
Proof.
  apply (sim_rel_gen (gz_spec ap m ll total) gfiles_from) with (c := tt).
  - intros a. split; [auto|]. split; intros p Hp; left; exact Hp.
  - intros a b c [A1 [A2 A3]] [B1 [B2 B3]]. split; [auto|].
    assert (P1 : forall p, In p (g_pl (snd b)) -> In p (g_pl (snd a)) \/ In p (fst c) \/ snd p = []).
    { intros p Hp. destruct (A2 p Hp) as [G|[G|G]]; [left; exact G | right; left; apply B1; exact G | right; right; exact G]. }
    split.
    + intros p Hp. destruct (B2 p Hp) as [H|[H|H]]; [exact (P1 p H) | right; left; exact H | right; right; exact H].
    + intros p Hp. destruct (B3 p Hp) as [H|[H|[H|H]]].
      * destruct (A3 p H) as [G|[G|[G|G]]]; [left; exact G | right; left; exact G | right; right; left; apply B1; exact G | right; right; right; exact G].
      * destruct (P1 p H) as [G|[G|G]]; [right; left; exact G | right; right; left; exact G | right; right; right; exact G].
      * right; right; left. exact H.
      * right; right; right. exact H.
  - intros c0 a fl0 b. cbn [gz_spec sp_step]. unfold gstep_log.
    pose proof (gstep_is_ok ap m ll total (snd a) fl0 b) as K. destruct (gstep ap m ll total (snd a) fl0 b) as [[st' e] fl']. cbn [fst snd].
    destruct K as [_ [_ [_ [Hc Ha]]]]. split; [intros p Hp; apply in_or_app; left; exact Hp|]. split.
    + intros p Hp. destruct (Hc p Hp) as [G|[G|G]]; [left; exact G | right; left; apply in_or_app; right; exact G | right; right; exact G].
    + intros p Hp. destruct (Ha p Hp) as [G|[G|[G|G]]];
        [left; exact G | right; left; exact G | right; right; left; apply in_or_app; right; exact G | right; right; right; exact G].
Qed.

(* (2) Only records during whose own log call a failing call was consumed can be missing; the log consists of the
   other records, in order, each once; the plain files and the archives in the directory are closed files of the log,
   with their contents, or empty *)
Theorem lost_only_around_failures_g ap m ll total fl recs :
  let '(st', e, fl') := simg_st ap m ll total (GInit [] [] false) fl recs in
  let t := gtrace ap m ll total (GInit [] [] false) fl recs in
  let lg := glog ap m ll total (GInit [] [] false) fl recs in
  List.map t_rec t = recs
  /\ fl = concat (List.map t_used t) ++ fl'
  /\ e = concat (List.map t_errs t)
  /\ concat (List.map snd lg) ++ g_wcur st' = concat (List.map t_kept t)
  /\ (forall p, In p (g_pl st') \/ In p (g_arch st') -> In p lg \/ snd p = [])
  /\ (forall x, In x t -> length (t_errs x) = ntrue (t_used x))
  /\ (forall x, In x t -> (forall f, In f (t_used x) -> f = false) -> t_errs x = [] /\ t_kept x = t_rec x)
  /\ (forall x, In x t -> t_kept x <> t_rec x -> In true (t_used x) /\ In EWrite (t_errs x)).
Proof.
  pose proof (lost_only_around_failures_gen (gz_spec ap m ll total) tt ([], GInit [] [] false) fl recs eq_refl) as T.
  pose proof (simg_log_files ap m ll total recs ([], GInit [] [] false) fl) as [_ [H6 H7]].
  cbn [gz_spec sp_sim sp_trace sp_bytes sp_stream] in T. rewrite map_id in T. unfold simg_log in T, H6, H7. cbn [fst snd app] in T, H6, H7.
  destruct (simg_st ap m ll total (GInit [] [] false) fl recs) as [[st' e] fl']. cbn [fst snd gstream] in T, H6, H7. cbv zeta in T |- *.
  destruct T as [H1 [H2 [H3 [H4 H5]]]].
  split; [exact H1|]. split; [exact H2|]. split; [exact H3|]. split; [exact H4|]. split; [|exact H5].
  intros p [Hp|Hp]; [destruct (H6 p Hp) as [[]|H]; exact H | destruct (H7 p Hp) as [[]|[[]|H]]; exact H].
Qed.

(* (3) each missing record is one reported EWrite *)
Theorem loss_is_reported_g ap m ll total : forall recs st fl,
  let '(st', e, _) := simg_st ap m ll total st fl recs in
  exists kept, Subseq kept recs
    /\ concat (List.map snd (glog ap m ll total st fl recs)) ++ g_wcur st' = g_wcur st ++ concat kept
    /\ length recs = length kept + nlost e /\ nlost e <= length e.
Proof.
  intros recs st fl. pose proof (loss_is_reported_gen (gz_spec ap m ll total) recs tt ([], st) fl) as T.
  cbn [gz_spec sp_sim sp_bytes sp_stream] in T. rewrite map_id in T. unfold simg_log in T. cbn [fst snd app] in T.
  destruct (simg_st ap m ll total st fl recs) as [[st' e] fl']. exact T.
Qed.

(* ------------------------------------------------------------------ failures inside the cleanup *)
(* AT A ROTATION whose rename and create succeed, whatever happens inside the cleanup (listing, removal of redundant
   archives, compressions, removals): the state is switched to the new rCURRENT, the record is lost only if its OWN
   write call fails, a failed cleanup is reported with one ELogFile; and the cleanup has only deleted and compressed *)
Theorem cleanup_fault_loses_no_record_g m ll total (old : bool) (pl ar : cdir) idx (d b : bytes) fl2 pl2 ar2 ok fl3 :
  (m <? N.of_nat (length d))%N = true ->
  g_cleanup ll total (pl ++ [(idx, d)]) ar fl2 = (pl2, ar2, ok, fl3) ->
  let f := fst (wr_pop b fl3) in
  g_active m ll total old pl ar idx d b (false :: false :: fl2)
  = (GCur pl2 ar2 (S idx) (if f then [] else b), (if ok then [] else [ELogFile]) ++ (if f then [EWrite] else []), snd (wr_pop b fl3))
  /\ lost ((if ok then [] else [ELogFile]) ++ (if f then [EWrite] else [])) = f
  /\ (forall p, In p pl2 -> In p (pl ++ [(idx, d)]))
  /\ (forall p, In p ar2 -> In p ar \/ arch_of (pl ++ [(idx, d)]) p).
Proof.
  intros Hm Ec. cbv zeta. unfold g_active. rewrite Hm. cbn [pop hd tl]. rewrite Ec.
  destruct (g_cleanup_incl ll total (pl ++ [(idx, d)]) ar fl2) as [CI1 CI2]. rewrite Ec in CI1, CI2. cbn [fst snd] in CI1, CI2.
  unfold s_write. destruct (wr_pop b fl3) as [f fl4]. cbn [fst snd].
  split; [destruct f; reflexivity|]. split; [destruct ok, f; reflexivity|]. split; assumption.
Qed.

(* AT THE INITIALISATION a failure inside the cleanup loses the record (reported with EWrite) *)
Theorem init_cleanup_fault_loses_record_g (ap : bool) m ll total (pl ar : cdir) (created : bool) (b : bytes) fl4 pl2 ar2 fl5 :
  let idx := g_next pl ar in
  let pl1 := if ap then pl else if created then pl ++ [(idx, [])] else pl in
  g_cleanup ll total pl1 ar fl4 = (pl2, ar2, false, fl5) ->
  g_init ap m ll total pl ar created b (false :: false :: false :: fl4) = (GInit pl2 ar2 true, [EWrite], fl5).
Proof. cbv zeta. intros Ec. unfold g_init. destruct ap; cbn [pop hd tl]; rewrite Ec; reflexivity. Qed.

(* ------------------------------------------------------------------ (4) recovery: the limits are restored *)
Definition memn (i : nat) (l : list nat) : bool := existsb (Nat.eqb i) l.
Definition notin (D : list nat) (p : nat * bytes) : bool := negb (memn (fst p) D).

Lemma filter_notin_cons i D (l : cdir) : filter (notin (i :: D)) l = filter (notin D) (deli i l).
Proof.
  unfold deli. induction l as [|x l IH]; [reflexivity|]. cbn [filter]. unfold notin at 1 3. cbn [memn existsb].
  rewrite (Nat.eqb_sym (fst x) i). destruct (Nat.eqb i (fst x)); cbn [orb negb filter]; [exact IH|].
  unfold notin at 2. fold (memn (fst x) D). destruct (memn (fst x) D); cbn [negb]; [exact IH | f_equal; exact IH].
Qed.
Lemma filter_insi_le (f : nat * bytes -> bool) q (l : cdir) : length (filter f (insi q l)) <= S (length (filter f l)).
Proof.
  induction l as [|x l IH]; cbn [insi filter length]; [destruct (f q); cbn [length]; lia|].
  destruct (Nat.ltb (fst q) (fst x)); cbn [filter]; [destruct (f q), (f x); cbn [length]; lia|].
  destruct (f x); cbn [length]; lia.
Qed.

(* the indices of the plain entries at positions >= ll, of the archives at positions >= total, and the number of plain
   entries in the compression zone *)
Fixpoint Dp (ll : nat) (files : list lentry) (k : nat) : list nat :=
  match files with [] => [] | (g, (i, _)) :: r => (if negb g && Nat.leb ll k then [i] else []) ++ Dp ll r (S k) end.
Fixpoint Da (total : nat) (files : list lentry) (k : nat) : list nat :=
  match files with [] => [] | (g, (i, _)) :: r => (if g && Nat.leb total k then [i] else []) ++ Da total r (S k) end.
Fixpoint Cn (ll total : nat) (files : list lentry) (k : nat) : nat :=
  match files with [] => 0 | (g, _) :: r => (if negb g && Nat.leb ll k && negb (Nat.leb total k) then 1 else 0) + Cn ll total r (S k) end.

Lemma g_red_all_false : forall red (ar : cdir) fl, all_false fl ->
  exists ar1 fl', g_red red ar fl = (ar1, true, fl') /\ all_false fl'.
Proof.
  induction red as [|a r IH]; intros ar fl H; cbn [g_red]; [eauto|].
  destruct (pop_all_false fl H) as [E1 E2]. destruct (pop fl) as [f fl1]. cbn [fst snd] in *. subst f. apply IH. exact E2.
Qed.
Lemma g_compress_all_false i (d : bytes) (pl ar : cdir) fl : all_false fl ->
  exists fl', g_compress i d pl ar fl = (deli i pl, insi (i, d) ar, true, fl') /\ all_false fl'.
Proof.
  intros H. unfold g_compress.
  destruct (pop_all_false fl H) as [E1 H1]. destruct (pop fl) as [t1 fl1]. cbn [fst snd] in *. subst t1.
  destruct (pop_all_false fl1 H1) as [E2 H2]. destruct (pop fl1) as [t2 fl2]. cbn [fst snd] in *. subst t2.
  destruct (pop_all_false fl2 H2) as [E3 H3]. destruct (pop fl2) as [t3 fl3]. cbn [fst snd] in *. subst t3.
  destruct (pop_all_false fl3 H3) as [E4 H4]. destruct (pop fl3) as [t4 fl4]. cbn [fst snd] in *. subst t4.
  destruct (pop_all_false fl4 H4) as [E5 H5]. destruct (pop fl4) as [t5 fl5]. cbn [fst snd] in *. subst t5.
  exists fl5. split; [reflexivity | exact H5].
Qed.

Lemma g_loop_all_false ll total : ll <= total -> forall files k (pl ar : cdir) fl, all_false fl ->
  exists pl' ar' fl', g_loop files k ll total pl ar fl = (pl', ar', true, fl') /\ all_false fl'
    /\ pl' = filter (notin (Dp ll files k)) pl
    /\ length ar' <= length (filter (notin (Da total files k)) ar) + Cn ll total files k.
Proof.
  intros Hlt. induction files as [|[g [i d]] r IH]; intros k pl ar fl H; cbn [g_loop Dp Da Cn].
  - exists pl, ar, fl. split; [reflexivity|]. split; [exact H|]. split.
    + symmetry. apply filter_all_true. intros x _. reflexivity.
    + rewrite Nat.add_0_r. rewrite (filter_all_true (notin []) ar) by (intros x _; reflexivity). lia.
  - destruct (Nat.leb_spec total k) as [Ht|Ht].
    + assert (El : Nat.leb ll k = true) by (apply Nat.leb_le; lia). rewrite El.
      destruct (pop_all_false fl H) as [E1 H1]. destruct (pop fl) as [t fl1]. cbn [fst snd] in *. subst t.
      destruct (IH (S k) (if g then pl else deli i pl) (if g then deli i ar else ar) fl1 H1) as (pl' & ar' & fl' & E & H' & Ep & Ea).
      exists pl', ar', fl'. split; [exact E|]. split; [exact H'|]. destruct g; cbn [negb andb app Nat.add].
      * split; [exact Ep|]. rewrite filter_notin_cons. exact Ea.
      * split; [rewrite filter_notin_cons; exact Ep | exact Ea].
    + destruct (Nat.leb_spec ll k) as [Hl|Hl].
      * destruct g; cbn [negb andb app Nat.add].
        -- exact (IH (S k) pl ar fl H).
        -- destruct (g_compress_all_false i d pl ar fl H) as (fl1 & Ec & H1). rewrite Ec.
           destruct (IH (S k) (deli i pl) (insi (i, d) ar) fl1 H1) as (pl' & ar' & fl' & E & H' & Ep & Ea).
           exists pl', ar', fl'. split; [exact E|]. split; [exact H'|]. split; [rewrite filter_notin_cons; exact Ep|].
           pose proof (filter_insi_le (notin (Da total r (S k))) (i, d) ar). lia.
      * destruct g; cbn [negb andb app Nat.add]; exact (IH (S k) pl ar fl H).
Qed.

Lemma Dp_arch ll (A : cdir) : forall k, Dp ll (List.map (pair true) A) k = [].
Proof. induction A as [|[i d] A IH]; intros k; cbn [List.map Dp negb andb app]; [reflexivity | apply IH]. Qed.
Lemma Cn_arch ll total (A : cdir) : forall k, Cn ll total (List.map (pair true) A) k = 0.
Proof. induction A as [|[i d] A IH]; intros k; cbn [List.map Cn negb andb Nat.add]; [reflexivity | apply IH]. Qed.
Lemma Da_arch total (A : cdir) : forall k, Da total (List.map (pair true) A) k = List.map fst (skipn (total - k) A).
Proof.
  induction A as [|[i d] A IH]; intros k; cbn [List.map Da andb]; [rewrite skipn_nil; reflexivity|].
  destruct (Nat.leb_spec total k) as [H|H].
  - replace (total - k) with 0 by lia. rewrite IH. replace (total - S k) with 0 by lia. reflexivity.
  - replace (total - k) with (S (total - S k)) by lia. cbn [skipn app]. apply IH.
Qed.

Lemma Dp_listing ll (P A : cdir) : forall k,
  Dp ll (List.map (pair false) P ++ List.map (pair true) A) k = List.map fst (skipn (ll - k) P).
Proof.
  induction P as [|[i d] P IH]; intros k; cbn [List.map app Dp negb andb]; [rewrite skipn_nil; apply Dp_arch|].
  destruct (Nat.leb_spec ll k) as [H|H].
  - replace (ll - k) with 0 by lia. rewrite IH. replace (ll - S k) with 0 by lia. reflexivity.
  - replace (ll - k) with (S (ll - S k)) by lia. cbn [skipn app]. apply IH.
Qed.
Lemma Da_listing total (P A : cdir) : forall k,
  Da total (List.map (pair false) P ++ List.map (pair true) A) k = List.map fst (skipn (total - (k + length P)) A).
Proof.
  induction P as [|[i d] P IH]; intros k; cbn [List.map app Da andb length]; [rewrite Nat.add_0_r; apply Da_arch|].
  rewrite IH. f_equal. f_equal. lia.
Qed.
Lemma Cn_listing ll total (P A : cdir) : ll <= total -> forall k,
  Cn ll total (List.map (pair false) P ++ List.map (pair true) A) k
  = Nat.min (total - k) (length P) - Nat.min (ll - k) (length P).
Proof.
  intros Hlt. induction P as [|[i d] P IH]; intros k; cbn [List.map app Cn negb andb length]; [rewrite Cn_arch; lia|].
  rewrite IH. destruct (Nat.leb_spec ll k), (Nat.leb_spec total k); cbn [negb andb]; lia.
Qed.

Lemma filter_len_le {A} (p : A -> bool) l : length (filter p l) <= length l.
Proof. induction l as [|y l IH]; cbn [filter length]; [lia|]. destruct (p y); cbn [length]; lia. Qed.
Lemma filter_rev_length {A} (f : A -> bool) l : length (filter f (rev l)) = length (filter f l).
Proof.
  induction l as [|x l IH]; [reflexivity|]. cbn [rev filter]. rewrite filter_app, app_length, IH. cbn [filter].
  destruct (f x); cbn [length]; lia.
Qed.
Lemma filter_own_indices (l : cdir) : filter (notin (List.map fst l)) l = [].
Proof.
  assert (G : forall D, (forall x, In x l -> In (fst x) D) -> filter (notin D) l = []).
  { intros D H. induction l as [|x l IH]; [reflexivity|]. cbn [filter]. unfold notin at 1.
    assert (M : memn (fst x) D = true) by (apply existsb_exists; exists (fst x); split; [apply H; left; reflexivity | apply Nat.eqb_refl]).
    rewrite M. cbn [negb]. apply IH. intros y Hy. apply H. right. exact Hy. }
  apply G. intros x Hx. apply in_map. exact Hx.
Qed.
(* of the entries of l (listed newest first as rev l) only those at the first n positions can survive *)
Lemma filter_tail_bound (l : cdir) n : length (filter (notin (List.map fst (skipn n (rev l)))) l) <= Nat.min n (length l).
Proof.
  rewrite <- (rev_involutive l) at 2. rewrite filter_rev_length. rewrite <- (firstn_skipn n (rev l)) at 2.
  rewrite filter_app, filter_own_indices, app_nil_r.
  pose proof (filter_len_le (notin (List.map fst (skipn n (rev l)))) (firstn n (rev l))) as H.
  rewrite firstn_length, rev_length in H. exact H.
Qed.

(* without failures the cleanup gets through and the limits hold: at most ll plain closed files, at most total closed
   files altogether *)
Theorem g_cleanup_all_false ll total (pl ar : cdir) fl : ll <= total -> all_false fl ->
  exists pl2 ar2 fl', g_cleanup ll total pl ar fl = (pl2, ar2, true, fl') /\ all_false fl'
    /\ length pl2 <= ll /\ length pl2 + length ar2 <= total.
Proof.
  intros Hlt H. unfold g_cleanup.
  destruct (pop_all_false fl H) as [E0 H0]. destruct (pop fl) as [t0 fl0]. cbn [fst snd] in *. subst t0.
  destruct (g_red_all_false (g_redundant pl ar) ar fl0 H0) as (ar1 & fl1 & Er & H1). rewrite Er. cbn [negb].
  destruct (g_loop_all_false ll total Hlt (g_listing pl ar1) 0 pl ar1 fl1 H1) as (pl2 & ar2 & fl2 & E & H2 & Ep & Ea).
  exists pl2, ar2, fl2. split; [exact E|]. split; [exact H2|].
  unfold g_listing in Ep, Ea. rewrite Dp_listing in Ep. rewrite Da_listing, Cn_listing in Ea by exact Hlt.
  rewrite Nat.sub_0_r in Ep, Ea. rewrite rev_length in Ea. cbn [Nat.add] in Ea. rewrite Nat.sub_0_r in Ea.
  pose proof (filter_tail_bound pl ll) as B1. rewrite <- Ep in B1.
  pose proof (filter_tail_bound ar1 (total - length pl)) as B2. lia.
Qed.

Definition gpending_ok (m : N) (st : gst) : Prop :=
  match st with GOld _ _ _ d => (m <? N.of_nat (length d))%N = true | _ => True end.
Definition grotates (m : N) (st : gst) : bool :=
  match st with GInit _ _ _ => true | GCur _ _ _ d => (m <? N.of_nat (length d))%N | GOld _ _ _ d => (m <? N.of_nat (length d))%N end.
(* the limits of the cleanup strategy hold: at most ll plain closed files, at most total closed files *)
Definition glimit_ok (ll total : nat) (st : gst) : Prop :=
  length (g_plain st) <= ll /\ length (g_plain st) + length (g_arch st) <= total.

Lemma g_active_pending m ll total (old : bool) (pl ar : cdir) idx (d b : bytes) fl :
  gpending_ok m (if old then GOld pl ar idx d else GCur pl ar idx d) -> gpending_ok m (fst (fst (g_active m ll total old pl ar idx d b fl))).
Proof.
  intros P. unfold g_active. destruct (m <? N.of_nat (length d))%N eqn:Em.
  - destruct (pop fl) as [f1 fl1]. destruct f1.
    + pose proof (s_write_pending d b fl1) as L. destruct (s_write d b fl1) as [[d' e] fl2]. cbn [fst].
      destruct old; cbn [gpending_ok]; [lia | exact I].
    + destruct (pop fl1) as [f2 fl2]. destruct f2.
      * pose proof (s_write_pending d b fl2) as L. destruct (s_write d b fl2) as [[d' e] fl3]. cbn [fst gpending_ok]. lia.
      * destruct (g_cleanup ll total (pl ++ [(idx, d)]) ar fl2) as [[[pl2 ar2] ok] fl3]. destruct (s_write [] b fl3) as [[d' e] fl4]. exact I.
  - pose proof (s_write_pending d b fl) as L. destruct (s_write d b fl) as [[d' e] fl1]. cbn [fst].
    destruct old; cbn [gpending_ok] in *; [congruence | exact I].
Qed.

Lemma gstep_pending ap m ll total st fl b : gpending_ok m st -> gpending_ok m (fst (fst (gstep ap m ll total st fl b))).
Proof.
  intros P. destruct st as [pl ar created|pl ar idx d|pl ar idx d]; cbn [gstep].
  - unfold g_init. destruct (pop fl) as [f1 fl1]. destruct f1; [exact I|].
    destruct (if ap then (false, fl1) else pop fl1) as [f2 fl2]. destruct f2; [exact I|].
    destruct (pop fl2) as [f3 fl3]. destruct f3; [exact I|].
    destruct (if ap then pop fl3 else (false, fl3)) as [f4 fl4]. destruct f4; [exact I|].
    destruct (g_cleanup ll total _ ar fl4) as [[[pl2 ar2] ok] fl5]. destruct ok; [|exact I].
    apply (g_active_pending m ll total false). exact I.
  - apply (g_active_pending m ll total false pl ar idx d b fl). exact I.
  - apply (g_active_pending m ll total true pl ar idx d b fl). exact P.
Qed.

Lemma simg_st_pending ap m ll total : forall recs st fl, gpending_ok m st -> gpending_ok m (fst (fst (simg_st ap m ll total st fl recs))).
Proof.
  induction recs as [|b rest IH]; intros st fl P; cbn [simg_st]; [exact P|].
  pose proof (gstep_pending ap m ll total st fl b P) as P1. destruct (gstep ap m ll total st fl b) as [[st1 e1] fl1]. cbn [fst] in P1.
  specialize (IH st1 fl1 P1). destruct (simg_st ap m ll total st1 fl1 rest) as [[st2 e2] fl2]. exact IH.
Qed.

Lemma g_active_recovered m ll total (old : bool) (pl ar : cdir) idx (d b : bytes) fl : ll <= total ->
  all_false fl -> (old = true -> (m <? N.of_nat (length d))%N = true) ->
  exists fl' pl' ar' idx' d', all_false fl' /\ g_active m ll total old pl ar idx d b fl = (GCur pl' ar' idx' d', [], fl')
    /\ ((m <? N.of_nat (length d))%N = true -> length pl' <= ll /\ length pl' + length ar' <= total)
    /\ ((m <? N.of_nat (length d))%N = false -> pl' = pl /\ ar' = ar).
Proof.
  intros Hlt H0 Ho. unfold g_active. destruct (m <? N.of_nat (length d))%N eqn:Em.
  - destruct (pop_all_false fl H0) as [E1 E2]. destruct (pop fl) as [f1 fl1]. cbn [fst snd] in *. subst f1.
    destruct (pop_all_false fl1 E2) as [E3 E4]. destruct (pop fl1) as [f2 fl2]. cbn [fst snd] in *. subst f2.
    destruct (g_cleanup_all_false ll total (pl ++ [(idx, d)]) ar fl2 Hlt E4) as (pl2 & ar2 & fl3 & Ec & H3 & L1 & L2). rewrite Ec.
    pose proof (s_write_all_false [] b fl3 H3) as S. destruct (s_write [] b fl3) as [[d' e] fl4]. destruct S as [-> [-> S3]].
    exists fl4, pl2, ar2, (S idx), ([] ++ b). split; [exact S3|]. split; [reflexivity|]. split; [intros _; split; assumption | discriminate].
  - pose proof (s_write_all_false d b fl H0) as S. destruct (s_write d b fl) as [[d' e] fl1]. destruct S as [-> [-> S3]].
    destruct old; [specialize (Ho eq_refl); congruence|]. exists fl1, pl, ar, idx, (d ++ b).
    split; [exact S3|]. split; [reflexivity|]. split; [discriminate | intros _; split; reflexivity].
Qed.

(* one record when no more failures come *)
Lemma gstep_recovered ap m ll total st fl b : ll <= total -> all_false fl -> gpending_ok m st ->
  let '(st', e, fl') := gstep ap m ll total st fl b in
  e = [] /\ all_false fl' /\ (exists pl ar idx d, st' = GCur pl ar idx d)
  /\ (grotates m st = true -> glimit_ok ll total st')
  /\ (grotates m st = false -> g_plain st' = g_plain st /\ g_arch st' = g_arch st).
Proof.
  intros Hlt Hf P.
  assert (A : forall (old : bool) (pl ar : cdir) idx (d : bytes) fl0, all_false fl0 -> (old = true -> (m <? N.of_nat (length d))%N = true) ->
     let '(st', e, fl') := g_active m ll total old pl ar idx d b fl0 in
     e = [] /\ all_false fl' /\ (exists pl' ar' idx' d', st' = GCur pl' ar' idx' d')
     /\ ((m <? N.of_nat (length d))%N = true -> glimit_ok ll total st')
     /\ ((m <? N.of_nat (length d))%N = false -> g_plain st' = pl /\ g_arch st' = ar)).
  { intros old pl ar idx d fl0 H0 Ho. destruct (g_active_recovered m ll total old pl ar idx d b fl0 Hlt H0 Ho) as (fl' & pl' & ar' & idx' & d' & H' & E & L1 & L2).
    rewrite E. split; [reflexivity|]. split; [exact H'|]. split; [eauto|]. split; [intros Em; exact (L1 Em) | intros Em; exact (L2 Em)]. }
  destruct st as [pl ar created|pl ar idx d|pl ar idx d]; cbn [gstep grotates].
  - unfold g_init.
    destruct (pop_all_false fl Hf) as [E1 E2]. destruct (pop fl) as [f1 fl1]. cbn [fst snd] in *. subst f1.
    pose proof (proj2 (pop_if_all_false ap fl1 E2)) as X2.
    destruct (if ap then (false, fl1) else pop fl1) as [f2 fl2]. cbn [fst snd] in X2. destruct X2 as [-> E3].
    destruct (pop_all_false fl2 E3) as [E4 E5]. destruct (pop fl2) as [f3 fl3]. cbn [fst snd] in *. subst f3.
    pose proof (proj1 (pop_if_all_false ap fl3 E5)) as X4.
    destruct (if ap then pop fl3 else (false, fl3)) as [f4 fl4]. cbn [fst snd] in X4. destruct X4 as [-> E6].
    destruct (g_cleanup_all_false ll total (if ap then pl else if created then pl ++ [(g_next pl ar, [])] else pl) ar fl4 Hlt E6)
      as (pl2 & ar2 & fl5 & Ec & H5 & L1 & L2).
    rewrite Ec.
    pose proof (A false pl2 ar2 (if ap then g_next pl ar else if created then S (g_next pl ar) else g_next pl ar) [] fl5 H5
                  (fun H => False_ind _ (Bool.diff_false_true H))) as S.
    destruct (g_active m ll total false pl2 ar2 _ [] b fl5) as [[st' e] fl']. destruct S as [S1 [S2 [S3 [_ S5]]]].
    split; [exact S1|]. split; [exact S2|]. split; [exact S3|]. split; [|discriminate].
    intros _. unfold glimit_ok. destruct S5 as [-> ->]; [cbn [length]; apply N.ltb_ge; apply N.le_0_l|]. split; assumption.
  - pose proof (A false pl ar idx d fl Hf (fun H => False_ind _ (Bool.diff_false_true H))) as S.
    destruct (g_active m ll total false pl ar idx d b fl) as [[st' e] fl']. exact S.
  - cbn [gpending_ok] in P. pose proof (A true pl ar idx d fl Hf (fun _ => P)) as S.
    destruct (g_active m ll total true pl ar idx d b fl) as [[st' e] fl']. destruct S as [S1 [S2 [S3 [S4 _]]]].
    split; [exact S1|]. split; [exact S2|]. split; [exact S3|]. split; [exact S4|]. rewrite P. discriminate.
Qed.

(* Once no more failures come: nothing more is reported, every further record is in the log, limits that hold keep
   holding, and after the first record the writer is on rCURRENT *)
Theorem recovery_gz_spec ap m ll total : ll <= total -> forall recs st fl, all_false fl -> gpending_ok m st ->
  let '(st', e, fl') := simg_st ap m ll total st fl recs in
  e = [] /\ all_false fl'
  /\ concat (List.map snd (glog ap m ll total st fl recs)) ++ g_wcur st' = g_wcur st ++ concat recs
  /\ (glimit_ok ll total st -> glimit_ok ll total st')
  /\ (recs <> [] -> exists pl ar idx d, st' = GCur pl ar idx d).
Proof.
  intros Hlt. induction recs as [|b rest IH]; intros st fl Hf P; cbn [simg_st glog].
  - cbn. rewrite app_nil_r. split; [reflexivity|]. split; [exact Hf|]. split; [reflexivity|]. split; [intros L; exact L | intros X; contradiction].
  - pose proof (gstep_recovered ap m ll total st fl b Hlt Hf P) as S. pose proof (gstep_is_ok ap m ll total st fl b) as K.
    destruct (gstep ap m ll total st fl b) as [[st1 e1] fl1]. destruct S as [-> [Hf1 [(pl1 & ar1 & idx1 & d1 & Est) [Hr Hn]]]].
    destruct K as [_ [_ [Hs _]]]. cbn [lost existsb] in Hs.
    assert (P1 : gpending_ok m st1) by (rewrite Est; exact I).
    specialize (IH st1 fl1 Hf1 P1). destruct (simg_st ap m ll total st1 fl1 rest) as [[st2 e2] fl2] eqn:Er.
    destruct IH as [-> [Hf2 [Hs2 [Hl2 Hc2]]]].
    split; [reflexivity|]. split; [exact Hf2|].
    split; [rewrite map_app, concat_app, <- app_assoc, Hs2, app_assoc, Hs; cbn [concat]; rewrite <- app_assoc; reflexivity|].
    split.
    + intros L. apply Hl2. destruct (grotates m st) eqn:Ek; [apply Hr; reflexivity|]. unfold glimit_ok in *.
      destruct (Hn eq_refl) as [-> ->]. exact L.
    + intros _. destruct rest as [|b2 rest2]; [|apply Hc2; discriminate].
      cbn [simg_st] in Er. injection Er as <- _. eauto.
Qed.

(* ... and THE LIMITS ARE RESTORED by the next initialisation or rotation *)
Theorem gz_limit_restored_spec ap m ll total recs1 b recs2 st fl : ll <= total ->
  all_false fl -> gpending_ok m st ->
  grotates m (fst (fst (simg_st ap m ll total st fl recs1))) = true ->
  let '(st', e, fl') := simg_st ap m ll total st fl (recs1 ++ b :: recs2) in
  e = [] /\ all_false fl' /\ glimit_ok ll total st' /\ exists pl ar idx d, st' = GCur pl ar idx d.
Proof.
  intros Hlt Hf P. rewrite simg_st_app.
  pose proof (recovery_gz_spec ap m ll total Hlt recs1 st fl Hf P) as R1. pose proof (simg_st_pending ap m ll total recs1 st fl P) as P1.
  destruct (simg_st ap m ll total st fl recs1) as [[st1 e1] fl1]. cbn [fst] in *. destruct R1 as [-> [Hf1 _]]. intros Hk.
  cbn [simg_st].
  pose proof (gstep_recovered ap m ll total st1 fl1 b Hlt Hf1 P1) as S. pose proof (gstep_pending ap m ll total st1 fl1 b P1) as P2.
  destruct (gstep ap m ll total st1 fl1 b) as [[st2 e2] fl2]. cbn [fst] in P2. destruct S as [-> [Hf2 [(pl2 & ar2 & idx2 & d2 & Est) [Hr _]]]].
  specialize (Hr Hk).
  pose proof (recovery_gz_spec ap m ll total Hlt recs2 st2 fl2 Hf2 P2) as R2.
  destruct (simg_st ap m ll total st2 fl2 recs2) as [[st3 e3] fl3] eqn:E3. destruct R2 as [-> [Hf3 [_ [Hl3 Hc3]]]].
  split; [reflexivity|]. split; [exact Hf3|]. split; [exact (Hl3 Hr)|].
  destruct recs2 as [|b2 r2]; [cbn [simg_st] in E3; injection E3 as <- _; eauto | apply Hc3; discriminate].
Qed.

Print Assumptions lost_only_around_failures_g.
Print Assumptions loss_is_reported_g.
Print Assumptions cleanup_fault_loses_no_record_g.
Print Assumptions gz_limit_restored_spec.
