(* C19 for the buffered write modes WITH rotation: the model does what the specification FaultBufRotSpec.simrb_run says -
   for EVERY fault oracle and EVERY history of log calls, flushes and the final drop (Numbers naming, size criterion,
   a BufWriter of any capacity n, no cleanup, synchronous, no symlink, no start-time part; with and without append). *)
Require FL.Flw.TsReader FL.Flw.SnapFacts.
Require Import FL.Base.Bytes FL.Base.BytesFacts FL.Fs.Fs FL.Fs.FsFacts FL.Names.FileSpec FL.Flw.Model
  FL.Flw.ModelFacts FL.Flw.NumFs FL.Flw.NumInv FL.Flw.Run FL.Flw.RunFacts FL.Flw.NumRun FL.Flw.NumRestart
  FL.Flw.KillFacts FL.Flw.NumKill FL.Flw.NumKillRestart FL.Flw.FaultFacts FL.Flw.FaultRotSpec FL.Flw.FaultRotation
  FL.Flw.FaultBufSpec FL.Flw.FaultBuffered FL.Flw.FaultBufRotSpec.
From Coq Require Import ZifyN ZifyNat ZifyBool.
Open Scope nat_scope.

Section BufRot.
Variables (c : config) (n : nat) (m : N).
Hypothesis Hcfg : numcfg c (CSize m).
Hypothesis Hcap : c_cap c = Some n.

(* the writer with an empty buffer stands for the file in the invariant AInv of FaultRotation *)
Definition w0 (ino : nat) : writer := bwr n ino [].

(* ---- the rotation check of one write, computed: o is what the rename of rCURRENT finds ---- *)
Lemma mount_next_fwb q fl idx cur ino B o :
  quiet q -> rename (wfs q) (cname c) (nm c (number_infix idx)) = o ->
  let q1 := match o with Some f1 => set_fs q f1 | None => q end in
  let idx1 := match o with Some _ => (idx + 1)%N | None => idx end in
  lookup (wfs q1) (cname c) = None ->
  let wr := bwr n ino B in
  let fl1 := snd (pop fl) in
  let fl2 := snd (pop fl1) in
  let g1 := fst (wr_pop (concat B) fl2) in
  let fl3 := snd (wr_pop (concat B) fl2) in
  let g2 := if g1 then fst (wr_pop (concat B) fl3) else false in
  let fl4 := if g1 then snd (wr_pop (concat B) fl3) else fl3 in
  let cf := create_file (wfs q1) (cname c) 0%N (wnow q) in
  if (m <? cur)%N then
    if fst (pop fl) then mount_next c (fw q fl) (act c m idx cur wr) false = (Err, fw q fl1, act c m idx cur wr)
    else if fst (pop fl1) then mount_next c (fw q fl) (act c m idx cur wr) false = (Err, fw q1 fl2, act c m idx1 cur wr)
    else exists q3,
      mount_next c (fw q fl) (act c m idx cur wr) false = (Ok tt, fw q3 fl4, act c m idx1 0 (w0 (snd cf)))
      /\ reported q1 q3 (if g1 then [EFlush] else [])
      /\ wfs q3 = append_ino (fst cf) ino (if g1 && g2 then [] else concat B)
  else mount_next c (fw q fl) (act c m idx cur wr) false = (Ok tt, fw q fl, act c m idx cur wr).
Proof.
  intros Q Eo q1 idx1 L1 wr fl1 fl2 g1 fl3 g2 fl4 cf. destruct Hcfg as [Hrot [Hts [Hlink _]]].
  unfold mount_next, act. cbn [mk_rs rs_roll rs_naming rs_cleanup rs_bg orb rotation_necessary]. unfold size_rotation_necessary.
  destruct (m <? cur)%N; [|reflexivity].
  rewrite (index_rotate_fw c q fl idx Q Hts), Eo.
  unfold fl2, fl1 in *. destruct (pop fl) as [f1 fl1']; cbn [fst snd] in *. destruct f1; [reflexivity|].
  assert (Q1 : quiet q1) by (unfold q1; destruct o; [apply quiet_set_fs|]; exact Q).
  pose proof (open_log_file_fresh_fw c q1 fl1' (Some cur_infix) Q1 Hts Hlink L1) as Op. cbv zeta in Op. fold (nm c cur_infix) (cname c) in Op.
  assert (N1 : wnow q1 = wnow q) by (unfold q1; destruct o; reflexivity). rewrite N1, Hcap in Op. fold cf in Op.
  subst fl4 g2 fl3 g1.
  set (q2 := set_fs q1 (fst cf)) in *. assert (Q2 : quiet q2) by (apply quiet_set_fs; exact Q1).
  (* after the open: the explicit flush of the old writer, then its drop, which flushes again; no cleanup *)
  assert (X : forall ns fl2', exists q3,
    (let '(okf, w2a, wra) := w_flush (fw q2 fl2') wr in
     let w2b := if okf then w2a else report EFlush w2a in
     let w3 := w_drop w2b wra in
     let roll' := reset_size_and_date w3 (RSize m cur) (cname c) in
     let '(rc, w4) := cleanup_or_queue c w3 false KNever (ns_filter ns) (if ns_writes_direct ns then Some (cname c) else None) in
     let st' := Active (Some {| rs_naming := ns; rs_roll := roll'; rs_cleanup := KNever; rs_bg := false |}) (w0 (snd cf)) (cname c) in
     (match rc with Ok _ => Ok tt | Err => Err | Panic => Panic end, w4, st'))
    = (Ok tt, fw q3 (if fst (wr_pop (concat B) fl2') then snd (wr_pop (concat B) (snd (wr_pop (concat B) fl2'))) else snd (wr_pop (concat B) fl2')),
       Active (Some (mk_rs ns (RSize m 0))) (w0 (snd cf)) (cname c))
    /\ reported q1 q3 (if fst (wr_pop (concat B) fl2') then [EFlush] else [])
    /\ wfs q3 = append_ino (fst cf) ino
                  (if fst (wr_pop (concat B) fl2') && (if fst (wr_pop (concat B) fl2') then fst (wr_pop (concat B) (snd (wr_pop (concat B) fl2'))) else false)
                   then [] else concat B)).
  { intros ns fl2'.
    destruct (w_flush_b q2 fl2' n ino B Q2) as [q2a [Ef [S2a F2a]]]. unfold wr. rewrite Ef.
    destruct (wr_pop (concat B) fl2') as [g1 fl3]. cbn [fst snd negb] in *. destruct g1; cbn [negb andb].
    - (* it fails: reported; the drop tries again *)
      rewrite report_fw by apply S2a. destruct (report_reported EFlush q2a (proj1 S2a)) as [R2b F2b].
      unfold w_drop. destruct (w_flush_b (report EFlush q2a) fl3 n ino B (proj1 R2b)) as [q3 [Ef3 [S3 F3]]]. rewrite Ef3.
      cbn [fst snd]. unfold cleanup_or_queue. cbn [cleanup_impl reset_size_and_date].
      exists q3. split; [reflexivity|]. split.
      + apply (reported_trans q1 q2 q3 [] [EFlush]); [apply same_env_reported, same_env_set_fs; exact Q1|].
        apply (reported_trans q2 q2a q3 [] [EFlush]); [apply same_env_reported; exact S2a|].
        apply (reported_trans q2a (report EFlush q2a) q3 [EFlush] []); [exact R2b | apply same_env_reported; exact S3].
      + rewrite F3, F2b, F2a, append_ino_nil_id. reflexivity.
    - unfold w_drop. destruct (w_flush_b q2a fl3 n ino [] (proj1 S2a)) as [q3 [Ef3 [S3 F3]]]. rewrite Ef3.
      cbn [fst snd concat wr_pop] in *. unfold cleanup_or_queue. cbn [cleanup_impl reset_size_and_date].
      exists q3. split; [reflexivity|]. split.
      + apply (reported_trans q1 q2 q3 [] []); [apply same_env_reported, same_env_set_fs; exact Q1|].
        apply (reported_trans q2 q2a q3 [] []); apply same_env_reported; assumption.
      + rewrite F3, append_ino_nil_id, F2a. reflexivity. }
  subst q1 idx1. destruct o as [f1|]; rewrite Op; (destruct (pop fl1') as [f2 fl2']; cbn [fst snd]); (destruct f2; [reflexivity | apply X]).
Qed.

(* the accepted bytes: a record that is not lost adds its length *)
Lemma sb_write_total F B b fl :
  length (concat (st_file (o_st (sb_write n F B b fl)))) + length (concat (st_buf (o_st (sb_write n F B b fl))))
  = length (concat F) + length (concat B) + (match o_errs (sb_write n F B b fl) with [] => length b | _ => 0 end).
Proof.
  unfold sb_write.
  repeat match goal with
         | |- context [if ?x then _ else _] => match type of x with bool => destruct x end
         | |- context [let '(_, _) := ?p in _] => destruct p
         end; cbn [o_st o_errs st_file st_buf]; rewrite ?concat_app, ?app_length; cbn [concat length app]; rewrite ?app_length; cbn [length]; lia.
Qed.

(* ---- the rest of write_buffer after the rotation check ---- *)
Lemma wb_active_b q fl idx cur wr r1 q1 fl1 idx1 cur1 ino1 B1 D b :
  mount_next c (fw q fl) (act c m idx cur wr) false = (r1, fw q1 fl1, act c m idx1 cur1 (bwr n ino1 B1)) ->
  r1 <> Panic -> quiet q1 -> length (concat B1) <= n ->
  let out := sb_write n D B1 b fl1 in
  exists q3 delta,
    write_buffer (flw_of c (act c m idx cur wr)) (fw q fl) b
    = ((match o_errs out with [] => Ok tt | _ => Err end), fw q3 (o_fl out),
       flw_of c (act c m idx1 (match o_errs out with [] => (cur1 + N.of_nat (length b))%N | _ => cur1 end)
                     (bwr n ino1 (st_buf (o_st out)))), (m <? cur)%N)
    /\ reported q1 q3 (match r1 with Err => [ELogFile] | _ => [] end)
    /\ wfs q3 = append_ino (wfs q1) ino1 delta
    /\ concat (st_file (o_st out)) = concat D ++ delta
    /\ length (concat (st_buf (o_st out))) <= n
    /\ (o_errs out = [] \/ o_errs out = [EWrite]).
Proof.
  intros M Hr Q1 HB. cbv zeta. unfold act in *. unfold write_buffer, flw_of. cbn [f_cfg f_inner]. rewrite M.
  cbn [mk_rs rs_roll rotation_necessary]. unfold size_rotation_necessary.
  assert (Go : forall q2, reported q1 q2 (match r1 with Err => [ELogFile] | _ => [] end) ->
    exists q3 delta,
      (let '(ok, w3, wr') := w_write (fw q2 fl1) (bwr n ino1 B1) b in
       if ok then
         (Ok tt, w3, with_inner {| f_cfg := c; f_inner := Active (Some (mk_rs (NSNumR idx) (RSize m cur))) wr (cname c); f_poisoned := false |}
                       (Active (Some {| rs_naming := rs_naming (mk_rs (NSNumR idx1) (RSize m cur1));
                                        rs_roll := increase_size (rs_roll (mk_rs (NSNumR idx1) (RSize m cur1))) (N.of_nat (length b));
                                        rs_cleanup := rs_cleanup (mk_rs (NSNumR idx1) (RSize m cur1));
                                        rs_bg := rs_bg (mk_rs (NSNumR idx1) (RSize m cur1)) |}) wr' (cname c)), (m <? cur)%N)
       else (Err, w3, with_inner {| f_cfg := c; f_inner := Active (Some (mk_rs (NSNumR idx) (RSize m cur))) wr (cname c); f_poisoned := false |}
                        (Active (Some (mk_rs (NSNumR idx1) (RSize m cur1))) wr' (cname c)), (m <? cur)%N))
      = ((match o_errs (sb_write n D B1 b fl1) with [] => Ok tt | _ => Err end), fw q3 (o_fl (sb_write n D B1 b fl1)),
         {| f_cfg := c;
            f_inner := Active (Some (mk_rs (NSNumR idx1)
                         (RSize m (match o_errs (sb_write n D B1 b fl1) with [] => (cur1 + N.of_nat (length b))%N | _ => cur1 end))))
                         (bwr n ino1 (st_buf (o_st (sb_write n D B1 b fl1)))) (cname c);
            f_poisoned := false |}, (m <? cur)%N)
      /\ reported q1 q3 (match r1 with Err => [ELogFile] | _ => [] end)
      /\ wfs q3 = append_ino (wfs q2) ino1 delta
      /\ concat (st_file (o_st (sb_write n D B1 b fl1))) = concat D ++ delta
      /\ length (concat (st_buf (o_st (sb_write n D B1 b fl1)))) <= n
      /\ (o_errs (sb_write n D B1 b fl1) = [] \/ o_errs (sb_write n D B1 b fl1) = [EWrite])).
  { intros q2 R2.
    destruct (w_write_sb q2 fl1 n ino1 D B1 b (proj1 R2) HB) as [q3 [F' [B' [delta [Est [Hc [HB' [Ew [S [Hf [Herr Hcode]]]]]]]]]]].
    cbv zeta in *. rewrite Ew, Est. cbn [st_file st_buf]. exists q3, delta.
    split; [destruct Herr as [E|E]; rewrite E; reflexivity|].
    split. { pose proof (reported_trans _ _ _ _ _ R2 (same_env_reported _ _ S)) as R. rewrite app_nil_r in R. exact R. }
    auto. }
  destruct r1 as [[]| |]; [| |contradiction].
  - destruct (Go q1 (reported_refl q1 Q1)) as [q3 [delta [E R]]]. exists q3, delta. split; [exact E | exact R].
  - rewrite report_fw by exact Q1. destruct (report_reported ELogFile q1 Q1) as [R1 F1].
    destruct (Go (report ELogFile q1) R1) as [q3 [delta [E [R [F R']]]]]. exists q3, delta. split; [exact E|]. split; [exact R|].
    rewrite F, F1. auto.
Qed.

(* ------------------------------------------------------------------ the invariant of the run *)
Definition clb (cl : list (list bytes)) : list bytes := List.map (@concat N) cl.
Definition st_sameb (old : bool) (cl : list (list bytes)) (D B : list bytes) : rbst := if old then ROld cl D B else RCur cl D B.

Definition FInvB (x : sys) (st : rbst) (errs : list ecode) (fl : list bool) : Prop :=
  exists q, s_w x = fw q fl /\ quiet q /\ wacts q = 0 /\ werrs q = errs /\ s_tl x = [] /\
  match st with
  | RInit created =>
    s_flw x = Some (flw_of c Initial) /\ dir_ok (wfs q) /\ reader_view_opt c (wfs q) [] (if created then Some [] else None)
    /\ (created = true -> c_append c = true)
  | RCur cl D B => exists ino,
      s_flw x = Some (flw_of c (act c m (idx_of false (clb cl)) (N.of_nat (length (concat D) + length (concat B))) (bwr n ino B)))
      /\ AInv c false q (w0 ino) (clb cl) (concat D) /\ length (concat B) <= n
  | ROld cl D B => exists ino,
      s_flw x = Some (flw_of c (act c m (idx_of true (clb cl)) (N.of_nat (length (concat D) + length (concat B))) (bwr n ino B)))
      /\ AInv c true q (w0 ino) (clb cl) (concat D) /\ length (concat B) <= n
  | RStopped cl ocur =>
    s_flw x = None /\ dir_ok (wfs q) /\ reader_view_opt c (wfs q) (clb cl) (option_map (@concat N) ocur)
  end.

Lemma finvb_same x old cl D B errs fl q ino :
  s_w x = fw q fl -> quiet q -> wacts q = 0 -> werrs q = errs -> s_tl x = [] ->
  s_flw x = Some (flw_of c (act c m (idx_of old (clb cl)) (N.of_nat (length (concat D) + length (concat B))) (bwr n ino B))) ->
  AInv c old q (w0 ino) (clb cl) (concat D) -> length (concat B) <= n ->
  FInvB x (st_sameb old cl D B) errs fl.
Proof. intros. exists q. destruct old; cbn [st_sameb]; repeat (split; [assumption|]); exists ino; (split; [assumption|]); split; assumption. Qed.

(* the rotation check has been made (result r1, world q1, oracle fl1, writer on a file that holds D1, buffer B1): the write *)
Lemma tail_step_b x q fl idx cur wr r1 q1 fl1 old1 cl1 D1 B1 ino1 errs1 b :
  s_w x = fw q fl -> s_tl x = [] -> s_flw x = Some (flw_of c (act c m idx cur wr)) ->
  mount_next c (fw q fl) (act c m idx cur wr) false
    = (r1, fw q1 fl1, act c m (idx_of old1 (clb cl1)) (N.of_nat (length (concat D1) + length (concat B1))) (bwr n ino1 B1)) ->
  r1 <> Panic -> quiet q1 -> wacts q1 = 0 -> werrs q1 = errs1 -> AInv c old1 q1 (w0 ino1) (clb cl1) (concat D1) ->
  length (concat B1) <= n ->
  let out := sb_write n D1 B1 b fl1 in
  exists x' rot, step x (OWrite b) = (x', ObsRes 0 rot)
    /\ FInvB x' (st_sameb old1 cl1 (st_file (o_st out)) (st_buf (o_st out)))
             (errs1 ++ (match r1 with Err => [ELogFile] | _ => [] end) ++ o_errs out) (o_fl out).
Proof.
  intros Ew Ht Es M Hr Q1 Ha1 He1 A1 HB1. cbv zeta.
  destruct (wb_active_b q fl idx cur wr r1 q1 fl1 _ _ ino1 B1 D1 b M Hr Q1 HB1) as [q3 [delta [E [R3 [F3 [Hc [HB' Herr]]]]]]].
  cbv zeta in *. pose proof (sb_write_total D1 B1 b fl1) as Tot.
  rewrite <- Ew in E. pose proof (step_write c m Hcfg x _ b _ _ _ _ Es Ht E) as S.
  assert (A3 : AInv c old1 q3 (w0 ino1) (clb cl1) (concat (st_file (o_st (sb_write n D1 B1 b fl1))))).
  { rewrite Hc. apply (ainv_append c old1 q1 q3 (w0 ino1)); [exact A1 | reflexivity | apply R3 | exact F3]. }
  destruct Herr as [Hr0|Hr0]; rewrite Hr0 in *.
  - eexists _, _. split; [apply S; discriminate|]. rewrite app_nil_r.
    apply (finvb_same _ old1 cl1 _ _ _ _ q3 ino1); cbn [s_w s_tl s_flw].
    + reflexivity.
    + apply R3.
    + exact (reported_acts _ _ _ R3 Ha1).
    + exact (reported_errs _ _ _ _ R3 He1).
    + reflexivity.
    + rewrite Tot. rewrite (Nat2N.inj_add (length (concat D1) + length (concat B1)) (length b)). reflexivity.
    + exact A3.
    + exact HB'.
  - eexists _, _. split; [apply S; discriminate|].
    destruct (report_ewrite_fw q1 q3 _ errs1 (o_fl (sb_write n D1 B1 b fl1)) R3 Ha1 He1) as [Ew' [Q' [Ha' [He' F4]]]].
    apply (finvb_same _ old1 cl1 _ _ _ _ (report EWrite q3) ino1); cbn [s_w s_tl s_flw]; try assumption; try reflexivity.
    + rewrite Tot, Nat.add_0_r. reflexivity.
    + apply (ainv_env c old1 q3); [exact A3 | exact F4 | exact Q'].
Qed.

Lemma same_eq (old : bool) cl D B : (if old then ROld cl else RCur cl) D B = st_sameb old cl D B.
Proof. destruct old; reflexivity. Qed.

Lemma clb_snoc cl X : clb (cl ++ [X]) = clb cl ++ [concat X].
Proof. unfold clb. rewrite map_app. reflexivity. Qed.

(* one record on an initialised writer *)
Lemma active_step_b x old q fl errs cl D B ino b :
  s_w x = fw q fl -> quiet q -> wacts q = 0 -> werrs q = errs -> s_tl x = [] ->
  s_flw x = Some (flw_of c (act c m (idx_of old (clb cl)) (N.of_nat (length (concat D) + length (concat B))) (bwr n ino B))) ->
  AInv c old q (w0 ino) (clb cl) (concat D) -> length (concat B) <= n ->
  let out := rb_active n m old cl D B b fl in
  exists x' rot, step x (OWrite b) = (x', ObsRes (r_code out) rot) /\ FInvB x' (r_st out) (errs ++ r_errs out) (r_fl out).
Proof.
  intros Ew Q Ha He Ht Es A HB. cbv zeta.
  destruct (ainv_rename c old q (w0 ino) (clb cl) (concat D) A) as [o [Eo Ho]]. cbv zeta in Ho. destruct Ho as [L1 [A1 Ei]].
  pose proof (mount_next_fwb q fl (idx_of old (clb cl)) (N.of_nat (length (concat D) + length (concat B))) ino B o Q Eo L1) as M.
  cbv zeta in M. rewrite Ei in M.
  set (q1 := match o with Some f1 => set_fs q f1 | None => q end) in *.
  assert (Q1 : quiet q1) by (unfold q1; destruct o; [apply quiet_set_fs|]; exact Q).
  assert (Ha1 : wacts q1 = 0) by (unfold q1; destruct o; exact Ha).
  assert (He1 : werrs q1 = errs) by (unfold q1; destruct o; exact He).
  unfold rb_active.
  destruct (m <? N.of_nat (length (concat D) + length (concat B)))%N.
  - destruct (pop fl) as [f1 fl1]. cbn [fst snd] in M. destruct f1.
    + (* the rename fails *)
      destruct (tail_step_b x q fl _ _ _ Err q fl1 old cl D B ino errs b Ew Ht Es M (fun H => ltac:(discriminate H)) Q Ha He A HB)
        as [x' [rot [S I]]].
      exists x', rot. unfold rb_write. cbn [r_st r_errs r_fl r_code app]. rewrite same_eq. split; [exact S | exact I].
    + destruct (pop fl1) as [f2 fl2]. cbn [fst snd] in M. destruct f2.
      * (* the new current file cannot be created *)
        destruct (tail_step_b x q fl _ _ _ Err q1 fl2 true cl D B ino errs b Ew Ht Es M (fun H => ltac:(discriminate H)) Q1 Ha1 He1 A1 HB)
          as [x' [rot [S I]]].
        exists x', rot. unfold rb_write. cbn [r_st r_errs r_fl r_code app]. split; [exact S | exact I].
      * (* the rotation is completed; the old buffer is flushed (twice if need be) *)
        destruct M as [q3 [M [R3 F3]]].
        set (cf := create_file (wfs q1) (cname c) 0%N (wnow q)) in *.
        (* whatever the flush brought into the old file (x), the new writer starts on an empty file *)
        assert (Fin : forall (X : list bytes) (xb : bytes) (e0 : list ecode) (lost0 : list bytes) fl4,
                  wfs q3 = append_ino (fst cf) ino xb -> length xb <= n -> concat X = concat D ++ xb -> reported q1 q3 e0 ->
                  mount_next c (fw q fl) (act c m (idx_of old (clb cl)) (N.of_nat (length (concat D) + length (concat B))) (bwr n ino B)) false
                    = (Ok tt, fw q3 fl4, act c m (idx_of true (clb cl)) 0 (w0 (snd cf))) ->
                  exists x' rot, step x (OWrite b) = (x', ObsRes (r_code (rb_write n (RCur (cl ++ [X])) [] [] b e0 fl4 lost0)) rot)
                    /\ FInvB x' (r_st (rb_write n (RCur (cl ++ [X])) [] [] b e0 fl4 lost0))
                             (errs ++ r_errs (rb_write n (RCur (cl ++ [X])) [] [] b e0 fl4 lost0))
                             (r_fl (rb_write n (RCur (cl ++ [X])) [] [] b e0 fl4 lost0))).
        { intros X xb e0 lost0 fl4 Fx Hx Hc R M4.
          assert (A3 : AInv c false q3 (w0 (snd cf)) (clb (cl ++ [X])) (concat [])).
          { rewrite clb_snoc, Hc. unfold w0 at 1, bwr. cbn [concat]. rewrite <- Hcap.
            exact (ainv_create c q1 (w0 ino) (clb cl) (concat D) xb q3 (wnow q) A1 eq_refl Hx (proj1 R) Fx). }
          assert (Ei3 : idx_of true (clb cl) = idx_of false (clb (cl ++ [X])))
            by (cbn [idx_of]; rewrite clb_snoc, app_length; cbn [length]; lia).
          rewrite Ei3 in M4.
          destruct (tail_step_b x q fl _ _ _ (Ok tt) q3 fl4 false (cl ++ [X]) [] [] (snd cf) (errs ++ e0) b Ew Ht Es M4
                      (fun H => ltac:(discriminate H)) (proj1 R) (reported_acts _ _ _ R Ha1) (reported_errs _ _ _ _ R He1) A3 (Nat.le_0_l n))
            as [x' [rot [S I]]].
          exists x', rot. unfold rb_write. cbn [r_st r_errs r_fl r_code app]. cbn [st_sameb app] in I.
          split; [exact S|]. rewrite app_assoc. exact I. }
        destruct (wr_pop (concat B) fl2) as [g1 fl3]. cbn [fst snd andb] in *. destruct g1.
        -- destruct (wr_pop (concat B) fl3) as [g2 fl4]. cbn [fst snd andb] in *. destruct g2.
           ++ apply (Fin D [] [EFlush] B fl4); [exact F3 | cbn; lia | rewrite app_nil_r; reflexivity | exact R3 | exact M].
           ++ apply (Fin (D ++ B) (concat B) [EFlush] [] fl4); [exact F3 | exact HB | apply concat_app | exact R3 | exact M].
        -- apply (Fin (D ++ B) (concat B) [] [] fl3); [exact F3 | exact HB | apply concat_app | exact R3 | exact M].
  - destruct (tail_step_b x q fl _ _ _ (Ok tt) q fl old cl D B ino errs b Ew Ht Es M (fun H => ltac:(discriminate H)) Q Ha He A HB)
      as [x' [rot [S I]]].
    exists x', rot. unfold rb_write. cbn [r_st r_errs r_fl r_code app]. rewrite same_eq. split; [exact S | exact I].
Qed.

(* ------------------------------------------------------------------ the initialisation *)
(* one record on a writer that is not initialised *)
Lemma init_step_b x created errs fl b : FInvB x (RInit created) errs fl ->
  let out := rb_init n (c_append c) m created b fl in
  exists x' rot, step x (OWrite b) = (x', ObsRes (r_code out) rot) /\ FInvB x' (r_st out) (errs ++ r_errs out) (r_fl out).
Proof.
  intros [q [Ew [Q [Ha [He [Ht [Es [W [R Hc]]]]]]]]]. cbv zeta. unfold rb_init.
  pose proof (initialize_fw c m Hcfg q fl created Q W R Hc) as IF. rewrite Hcap in IF. fold (w0 0) in IF.
  destruct (s_init_pops (c_append c) fl) as [[k|] fl'].
  - destruct IF as [q' [Ei [S [W' [R' Hc']]]]].
    assert (E : write_buffer (flw_of c Initial) (s_w x) b = (Err, fw q' fl', flw_of c Initial, false)).
    { rewrite Ew. unfold write_buffer. cbn [flw_of f_cfg f_inner]. rewrite Ei. reflexivity. }
    eexists _, _. split; [apply (step_write c m Hcfg x Initial b Err _ Initial false Es Ht E); discriminate|].
    cbn [r_st r_errs r_fl].
    destruct (report_ewrite_fw q q' [] errs fl' (same_env_reported _ _ S) Ha He) as [Ew' [Q' [Ha' [He' F4]]]].
    exists (report EWrite q'). cbn [s_w s_tl s_flw]. rewrite F4. auto 10.
  - destruct IF as [q' [ino [Ei [S A]]]].
    set (x1 := {| s_flw := Some (flw_of c (act c m 0 0 (w0 ino))); s_w := fw q' fl'; s_tl := []; s_dead := s_dead x |}).
    assert (E : step x (OWrite b) = step x1 (OWrite b)).
    { apply (step_write_eq c m Hcfg x x1 Initial (act c m 0 0 (w0 ino)) b Es eq_refl Ht eq_refl eq_refl). rewrite Ew. cbn [x1 s_w].
      exact (write_buffer_init c (fw q fl) b _ (w0 ino) (cname c) (fw q' fl') Ei). }
    rewrite E.
    apply (active_step_b x1 false q' fl' errs [] [] [] ino b eq_refl (proj1 S)).
    + exact (same_env_acts _ _ S Ha).
    + destruct S as [_ [_ [_ [H _]]]]. congruence.
    + reflexivity.
    + reflexivity.
    + exact A.
    + cbn. lia.
Qed.

(* ------------------------------------------------------------------ flush and drop *)
Lemma ainv_view old q ino cl d : AInv c old q (w0 ino) cl d ->
  dir_ok (wfs q) /\ reader_view_opt c (wfs q) (if old then cl ++ [d] else cl) (if old then None else Some d).
Proof.
  intros [Nd A]. destruct old.
  - destruct A as [q0 [I [V R]]]. destruct (rename_view c q0 (w0 ino) cl (wfs q) I R) as [W RV]. split; [exact (conj W Nd)|].
    unfold cur_view in V. cbn [w0 bwr wino wpend concat] in *. rewrite app_nil_r in V. rewrite V in RV. exact RV.
  - destruct A as [I V]. rewrite <- V. destruct (numinv_view c q (w0 ino) cl I eq_refl) as [W RV]. exact (conj (conj W Nd) RV).
Qed.

Lemma flush_ainv old q fl ino cl d B : AInv c old q (w0 ino) cl d -> quiet q ->
  exists q', w_flush (fw q fl) (bwr n ino B)
             = (negb (fst (wr_pop (concat B) fl)), fw q' (snd (wr_pop (concat B) fl)),
                bwr n ino (if fst (wr_pop (concat B) fl) then B else []))
    /\ same_env q q'
    /\ AInv c old q' (w0 ino) cl (d ++ (if fst (wr_pop (concat B) fl) then [] else concat B)).
Proof.
  intros A Q. destruct (w_flush_b q fl n ino B Q) as [q' [E [S Fs]]]. exists q'. split; [exact E|]. split; [exact S|].
  apply (ainv_append c old q q' (w0 ino)); [exact A | reflexivity | apply S | exact Fs].
Qed.

Lemma step_sync_x x i o : s_flw x = Some (flw_of c i) -> step x o = sync_step x o.
Proof. intros Es. destruct Hcfg as [_ [Hts [_ Ha]]]. exact (step_sync_cfg x o (flw_of c i) Es Hts Ha). Qed.

Lemma active_flush x old q fl errs cl D B ino :
  s_w x = fw q fl -> quiet q -> wacts q = 0 -> werrs q = errs -> s_tl x = [] ->
  s_flw x = Some (flw_of c (act c m (idx_of old (clb cl)) (N.of_nat (length (concat D) + length (concat B))) (bwr n ino B))) ->
  AInv c old q (w0 ino) (clb cl) (concat D) -> length (concat B) <= n ->
  let out := rb_flush (st_sameb old cl) D B fl in
  exists x', step x OFlush = (x', ObsRes (r_code out) false) /\ FInvB x' (r_st out) (errs ++ r_errs out) (r_fl out).
Proof.
  intros Ew Q Ha He Ht Es A HB. cbv zeta. rewrite (step_sync_x x _ OFlush Es). unfold sync_step. rewrite Es.
  cbn [flw_of f_poisoned]. unfold flush_state, flw_of, act. cbn [f_inner]. rewrite Ew.
  destruct (flush_ainv old q fl ino (clb cl) (concat D) B A Q) as [q1 [E [S A1]]]. rewrite E. unfold rb_flush.
  destruct (wr_pop (concat B) fl) as [f fl1]. cbn [fst snd] in *.
  destruct f; cbn [negb r_st r_errs r_fl r_code with_inner f_cfg f_poisoned]; rewrite app_nil_r; eexists; (split; [reflexivity|]).
  - rewrite app_nil_r in A1.
    apply (finvb_same _ old cl D B _ _ q1 ino); cbn [s_w s_tl s_flw]; try assumption; try reflexivity.
    + apply S.
    + exact (same_env_acts _ _ S Ha).
    + destruct S as [_ [_ [_ [H _]]]]. congruence.
  - rewrite <- concat_app in A1.
    apply (finvb_same _ old cl (D ++ B) [] _ _ q1 ino); cbn [s_w s_tl s_flw]; try assumption; try reflexivity.
    + apply S.
    + exact (same_env_acts _ _ S Ha).
    + destruct S as [_ [_ [_ [H _]]]]. congruence.
    + rewrite concat_app, app_length. cbn [concat length]. rewrite Nat.add_0_r. reflexivity.
    + cbn. lia.
Qed.

Lemma active_stop x old q fl errs cl D B ino :
  s_w x = fw q fl -> quiet q -> wacts q = 0 -> werrs q = errs -> s_tl x = [] ->
  s_flw x = Some (flw_of c (act c m (idx_of old (clb cl)) (N.of_nat (length (concat D) + length (concat B))) (bwr n ino B))) ->
  AInv c old q (w0 ino) (clb cl) (concat D) ->
  let out := rb_stop old cl D B fl in
  exists x', step x OStop = (x', ObsRes (r_code out) false) /\ FInvB x' (r_st out) (errs ++ r_errs out) (r_fl out).
Proof.
  intros Ew Q Ha He Ht Es A. cbv zeta. rewrite (step_sync_x x _ OStop Es). unfold sync_step. rewrite Es.
  cbn [flw_of f_poisoned]. fold (flw_of c (act c m (idx_of old (clb cl)) (N.of_nat (length (concat D) + length (concat B))) (bwr n ino B))).
  rewrite Ew, Ht. unfold rb_stop.
  destruct (drop_state_b q fl (flw_of c (act c m (idx_of old (clb cl)) (N.of_nat (length (concat D) + length (concat B))) (bwr n ino B)))
              _ n ino D B (cname c) Q eq_refl) as (q3 & F3 & delta & Est & _ & Hc & E & R & Fs).
  rewrite E, Est. cbn [st_file r_st r_errs r_fl r_code]. eexists. split; [reflexivity|].
  exists q3. cbn [s_w s_tl s_flw]. split; [reflexivity|]. split; [apply R|].
  split; [exact (reported_acts _ _ _ R Ha)|]. split; [exact (reported_errs _ _ _ _ R He)|]. split; [reflexivity|].
  assert (A3 : AInv c old q3 (w0 ino) (clb cl) (concat F3))
    by (rewrite Hc; apply (ainv_append c old q q3 (w0 ino)); [exact A | reflexivity | apply R | exact Fs]).
  destruct (ainv_view old q3 ino (clb cl) (concat F3) A3) as [W V].
  destruct old; (split; [reflexivity|]); (split; [exact W|]); [rewrite clb_snoc|]; exact V.
Qed.

(* ------------------------------------------------------------------ one operation, whole histories *)
Theorem fstep_b x st errs fl o : rop_stop o -> FInvB x st errs fl ->
  let out := rb_step n (c_append c) m st o fl in
  exists x' rot, step x o = (x', ObsRes (r_code out) rot) /\ FInvB x' (r_st out) (errs ++ r_errs out) (r_fl out).
Proof.
  intros Ho I. cbv zeta. destruct st as [created|cl D B|cl D B|cl ocur]; cbn [rb_step].
  - destruct o; try contradiction.
    + apply init_step_b. exact I.
    + destruct I as [q [Ew [Q [Ha [He [Ht [Es R]]]]]]]. cbn [r_st r_errs r_fl r_code]. eexists _, false.
      split; [rewrite (step_sync_x x _ OFlush Es); unfold sync_step; rewrite Es; reflexivity|].
      rewrite app_nil_r. exists q. cbn [s_w s_tl s_flw]. auto 10.
    + destruct I as [q [Ew [Q [Ha [He [Ht [Es [W [R Hc]]]]]]]]]. cbn [r_st r_errs r_fl r_code]. eexists _, false.
      split; [rewrite (step_sync_x x _ OStop Es); unfold sync_step; rewrite Es; reflexivity|].
      rewrite app_nil_r. exists q. cbn [s_w s_tl s_flw flw_of f_poisoned f_inner drop_state shutdown_state].
      split; [exact Ew|]. split; [exact Q|]. split; [exact Ha|]. split; [exact He|]. split; [exact Ht|].
      split; [reflexivity|]. split; [exact W|]. destruct created; exact R.
  - destruct I as [q [Ew [Q [Ha [He [Ht [ino [Es [A HB]]]]]]]]]. destruct o; try contradiction.
    + exact (active_step_b x false q fl errs cl D B ino b Ew Q Ha He Ht Es A HB).
    + destruct (active_flush x false q fl errs cl D B ino Ew Q Ha He Ht Es A HB) as [x' H]. exists x', false. exact H.
    + destruct (active_stop x false q fl errs cl D B ino Ew Q Ha He Ht Es A) as [x' H]. exists x', false. exact H.
  - destruct I as [q [Ew [Q [Ha [He [Ht [ino [Es [A HB]]]]]]]]]. destruct o; try contradiction.
    + exact (active_step_b x true q fl errs cl D B ino b Ew Q Ha He Ht Es A HB).
    + destruct (active_flush x true q fl errs cl D B ino Ew Q Ha He Ht Es A HB) as [x' H]. exists x', false. exact H.
    + destruct (active_stop x true q fl errs cl D B ino Ew Q Ha He Ht Es A) as [x' H]. exists x', false. exact H.
  - cbn [r_st r_errs r_fl r_code]. rewrite app_nil_r. exists x, false. split; [|exact I].
    destruct I as [q [_ [_ [_ [_ [_ [Es _]]]]]]].
    unfold step, apply_start. rewrite Es. unfold step_core. rewrite Es. unfold sync_step. rewrite Es.
    destruct o; try contradiction; reflexivity.
Qed.

Definition obs_code_is (k : N) (o : obs) : Prop := exists rot, o = ObsRes k rot.

Theorem frun_b : forall ops x st errs fl, Forall rop_stop ops -> FInvB x st errs fl ->
  let '(st', e, fl', codes, _) := simrb_run n (c_append c) m st fl ops in
  exists x' obs, run x ops = (x', obs) /\ FInvB x' st' (errs ++ e) fl' /\ Forall2 obs_code_is codes obs.
Proof.
  induction ops as [|o rest IH]; intros x st errs fl Hb I; cbn [simrb_run run].
  - exists x, []. rewrite app_nil_r. split; [reflexivity|]. split; [exact I | constructor].
  - inversion Hb as [|o' r' Ho Hr]; subst o' r'.
    destruct (fstep_b x st errs fl o Ho I) as [x1 [rot [S1 I1]]]. cbv zeta in S1, I1.
    specialize (IH x1 _ _ _ Hr I1).
    destruct (simrb_run n (c_append c) m (r_st (rb_step n (c_append c) m st o fl)) (r_fl (rb_step n (c_append c) m st o fl)) rest)
      as [[[[st2 e2] fl2] c2] l2].
    destruct IH as [x2 [obs [R2 [I2 O2]]]]. exists x2, (ObsRes (r_code (rb_step n (c_append c) m st o fl)) rot :: obs).
    rewrite S1, R2. split; [reflexivity|]. split; [rewrite app_assoc; exact I2|].
    constructor; [exists rot; reflexivity | exact O2].
Qed.

Lemma finvb_final x st errs fl : FInvB x st errs fl ->
  dir_ok (wfs (s_w x)) /\ reader_view_opt c (wfs (s_w x)) (rb_closed st) (rb_cur st)
  /\ pend_of x = rb_pend st /\ werrs (s_w x) = errs /\ wfaults (s_w x) = fl.
Proof.
  intros [q [Ew [Q [Ha [He [Ht I]]]]]]. rewrite Ew. cbn [fw set_faults wfs werrs wfaults].
  assert (V : dir_ok (wfs q) /\ reader_view_opt c (wfs q) (rb_closed st) (rb_cur st) /\ pend_of x = rb_pend st).
  { destruct st as [created|cl D B|cl D B|cl ocur]; cbn [rb_closed rb_cur rb_pend].
    - destruct I as [Es [W [R _]]]. split; [exact W|]. split; [exact R|]. unfold pend_of. rewrite Es. reflexivity.
    - destruct I as [ino [Es [A _]]]. destruct (ainv_view false q ino (clb cl) (concat D) A) as [W V].
      split; [exact W|]. split; [exact V|]. unfold pend_of. rewrite Es. reflexivity.
    - destruct I as [ino [Es [A _]]]. destruct (ainv_view true q ino (clb cl) (concat D) A) as [W V].
      split; [exact W|]. split; [exact V|]. unfold pend_of. rewrite Es. reflexivity.
    - destruct I as [Es [W R]]. split; [exact W|]. split; [exact R|]. unfold pend_of. rewrite Es. reflexivity. }
  destruct V as [W [V P]]. auto.
Qed.

Lemma finvb_start t0 off fl :
  FInvB (fst (step (fsys t0 off fl) (OStart c))) (RInit false) [] fl.
Proof.
  exists (world0 t0 off). split; [reflexivity|]. split; [split; reflexivity|]. split; [reflexivity|]. split; [reflexivity|].
  split; [reflexivity|]. split; [reflexivity|].
  destruct (empty_view c (wfs (world0 t0 off)) eq_refl) as [W V]. split; [split; [exact W | constructor]|]. split; [exact V | discriminate].
Qed.

End BufRot.

(* With rotation.  For every fault oracle fl and every history ops of log calls, flushes and drops of a buffered
   writer with Numbers naming and size criterion: after  OStart c :: ops  from the empty directory with the oracle fl,
   the directory is exactly what simrb_run says (r00000, r00001, ... hold the closed contents, rCURRENT the current
   content or does not exist, nothing else is there), the BufWriter holds exactly the buffered bytes it lists, the
   error channel exactly the errors it lists, the oracle is consumed as it says, every call returns the code it says
   (0 for log calls and the drop whatever fails, 1 for a failing flush(), 3 after the drop) *)
Theorem faults_buffered_rotation c n m t0 off fl ops :
  numcfg c (CSize m) -> c_cap c = Some n -> Forall rop_stop ops ->
  let r := run (fsys t0 off fl) (OStart c :: ops) in
  let '(st, errs, rest, codes, _) := simrb_run n (c_append c) m (RInit false) fl ops in
  fs_wf (wfs (s_w (fst r)))
  /\ reader_view_opt c (wfs (s_w (fst r))) (rb_closed st) (rb_cur st)
  /\ pend_of (fst r) = rb_pend st
  /\ werrs (s_w (fst r)) = errs
  /\ wfaults (s_w (fst r)) = rest
  /\ exists obs, snd r = ObsRes 0 false :: obs /\ Forall2 obs_code_is codes obs.
Proof.
  intros Hcfg Hcap Hb. cbv zeta. rewrite run_start.
  pose proof (frun_b c n m Hcfg Hcap ops _ _ _ _ Hb (finvb_start c n m t0 off fl)) as R.
  destruct (simrb_run n (c_append c) m (RInit false) fl ops) as [[[[st e] fl'] codes] lost].
  destruct R as [x' [obs [R [I O]]]]. rewrite R. cbn [fst snd app] in *.
  destruct (finvb_final c n m x' st e fl' I) as [[W _] [V [P [He Hf]]]].
  split; [exact W|]. split; [exact V|]. split; [exact P|]. split; [exact He|]. split; [exact Hf|].
  exists obs. split; [reflexivity | exact O].
Qed.
Print Assumptions faults_buffered_rotation.

(* ------------------------------------------------------------------ consequences at the level of the run *)
Lemma concat_concat {A} (l : list (list (list A))) : concat (List.map (@concat A) l) = concat (concat l).
Proof. induction l as [|x r IH]; [reflexivity|]. cbn [List.map concat]. rewrite concat_app, IH. reflexivity. Qed.

(* what a reader finds in the directory is the concatenation of the records on disk *)
Lemma rb_stream st : dir_stream (rb_closed st) (rb_cur st) = concat (rb_disk st).
Proof.
  unfold dir_stream. destruct st as [created|cl D B|cl D B|cl ocur]; cbn [rb_closed rb_cur rb_disk].
  - destruct created; reflexivity.
  - rewrite concat_app, concat_concat. reflexivity.
  - rewrite !concat_app, concat_concat. cbn [concat]. rewrite !app_nil_r. reflexivity.
  - rewrite concat_app, concat_concat. destruct ocur; cbn [option_map concat]; reflexivity.
Qed.

(* With rotation, in terms of the run: a history of log calls and flushes, possibly ended by the drop.  The stream a
   reader finds in the directory (r00000 ++ r00001 ++ ... ++ rCURRENT), followed by what the BufWriter still holds, is
   the concatenation of a subsequence `kept` of the records; exactly the others are lost (`lost`, counted); with t the
   trace of the specification (state before, operation, oracle before, outcome): the error channel holds the reports of
   the operations; every operation satisfies rstep_ok (every report has its own failing call; without a failing call
   nothing is reported or lost; a loss of the buffer - both flush attempts of a rotation, or all three of the drop,
   failed - is announced by EFlush, a loss of the incoming record by EWrite; what is on disk stays there); the number of
   operations that lose something is at most the number of reports *)
Theorem buffered_rotation_loss_bounded c n m t0 off fl ops tail :
  numcfg c (CSize m) -> c_cap c = Some n -> Forall rop ops -> tail = [] \/ tail = [OStop] ->
  let x := fst (run (fsys t0 off fl) (OStart c :: ops ++ tail)) in
  let t := rb_trace n (c_append c) m (RInit false) fl (ops ++ tail) in
  let lost := concat (List.map (fun e => r_lost (tr_out e)) t) in
  exists closed ocur kept,
    reader_view_opt c (wfs (s_w x)) closed ocur
    /\ dir_stream closed ocur ++ pend_bytes x = concat kept
    /\ Subseq kept (recs_of ops)
    /\ length (recs_of ops) = length kept + length lost
    /\ werrs (s_w x) = concat (List.map (fun e => r_errs (tr_out e)) t)
    /\ Forall tr_ok t
    /\ length (filter tr_loses t) <= length (werrs (s_w x)).
Proof.
  intros Hcfg Hcap Hb Ht. cbv zeta.
  assert (Hbs : Forall rop_stop (ops ++ tail)).
  { apply Forall_app. split; [eapply Forall_impl; [|exact Hb]; intros o Ho; destruct o; try contradiction; exact I|].
    destruct Ht as [->| ->]; [constructor | constructor; [exact I | constructor]]. }
  pose proof (faults_buffered_rotation c n m t0 off fl (ops ++ tail) Hcfg Hcap Hbs) as T. cbv zeta in T.
  pose proof (simrb_run_records n (c_append c) m ops (RInit false) fl tail I Hb Ht) as R.
  pose proof (simrb_trace n (c_append c) m ops (RInit false) fl tail I Hb Ht) as Tr.
  destruct (simrb_run n (c_append c) m (RInit false) fl (ops ++ tail)) as [[[[st e] fl'] codes] lost]. cbv zeta in Tr.
  destruct T as [_ [V [P [He _]]]]. destruct R as [kept [used [add [K1 [K2 [K3 _]]]]]]. destruct Tr as [T1 [T2 [_ [T4 T5]]]].
  cbn [rb_disk rb_buf app] in K1, K2, K3.
  exists (rb_closed st), (rb_cur st), kept. split; [exact V|].
  split. { rewrite rb_stream. unfold pend_bytes. rewrite P, <- K2. unfold rb_all. rewrite concat_app.
           destruct st; reflexivity. }
  split; [exact K1|]. rewrite He, <- T2, <- T1. auto.
Qed.
Print Assumptions buffered_rotation_loss_bounded.

(* With rotation, in terms of the run: once the rest of the oracle holds no failure, every further record reaches
   the directory with the next flush / drop, nothing more is reported *)
Theorem buffered_rotation_recovery_run c n m t0 off fl ops1 ops2 f :
  numcfg c (CSize m) -> c_cap c = Some n -> Forall rop ops1 -> Forall rop ops2 -> f = OFlush \/ f = OStop ->
  let x1 := fst (run (fsys t0 off fl) (OStart c :: ops1)) in
  let x2 := fst (run (fsys t0 off fl) (OStart c :: ops1 ++ ops2 ++ [f])) in
  all_false (wfaults (s_w x1)) ->
  exists cl1 cu1 cl2 cu2,
    reader_view_opt c (wfs (s_w x1)) cl1 cu1 /\ reader_view_opt c (wfs (s_w x2)) cl2 cu2
    /\ dir_stream cl2 cu2 = dir_stream cl1 cu1 ++ pend_bytes x1 ++ concat (recs_of ops2)
    /\ pend_bytes x2 = []
    /\ werrs (s_w x2) = werrs (s_w x1).
Proof.
  intros Hcfg Hcap H1 H2 Hfin. cbv zeta.
  assert (Up : forall l, Forall rop l -> Forall rop_stop l)
    by (intros l Hl; eapply Forall_impl; [|exact Hl]; intros o Ho; destruct o; try contradiction; exact I).
  assert (Hb2 : Forall rop_stop (ops1 ++ ops2 ++ [f])).
  { apply Forall_app. split; [apply Up; exact H1|]. apply Forall_app. split; [apply Up; exact H2|].
    constructor; [destruct Hfin as [->| ->]; exact I | constructor]. }
  pose proof (faults_buffered_rotation c n m t0 off fl ops1 Hcfg Hcap (Up _ H1)) as T1. cbv zeta in T1.
  pose proof (faults_buffered_rotation c n m t0 off fl _ Hcfg Hcap Hb2) as T2. cbv zeta in T2.
  pose proof (buffered_rotation_recovery n (c_append c) m fl ops1 ops2 f H1 H2 Hfin) as R.
  destruct (simrb_run n (c_append c) m (RInit false) fl ops1) as [[[[st1 e1] fl1] c1] l1].
  destruct (simrb_run n (c_append c) m (RInit false) fl (ops1 ++ ops2 ++ [f])) as [[[[st2 e2] fl2] c2] l2].
  destruct T1 as [_ [V1 [P1 [A3 [A4 _]]]]]. destruct T2 as [_ [V2 [P2 [B3 _]]]].
  rewrite A4. intros Hf. destruct (R Hf) as [-> [_ [Rd [Rb _]]]].
  exists (rb_closed st1), (rb_cur st1), (rb_closed st2), (rb_cur st2).
  split; [exact V1|]. split; [exact V2|].
  split. { rewrite !rb_stream, Rd. unfold pend_bytes. rewrite P1. unfold rb_all. rewrite !concat_app, <- app_assoc.
           destruct st1; reflexivity. }
  split; [unfold pend_bytes; rewrite P2; destruct st2; cbn [rb_pend rb_buf] in *; try reflexivity; rewrite Rb; reflexivity|].
  congruence.
Qed.
Print Assumptions buffered_rotation_recovery_run.

(* ------------------------------------------------------------------ the statement, computed on examples *)
Import String.StringSyntax.
Open Scope string_scope.
Definition rx_cfg (app : bool) (n : nat) (m : N) : config :=
  {| c_spec := {| fbase := bs "app"; fdisc := None; fts := false; fsfx := Some (bs "log") |};
     c_append := app; c_cap := Some n; c_rot := Some (CSize m, NNumbers, KNever); c_utc := false;
     c_symlink := false; c_bg := false; c_async := false; c_start := None |}.
Lemma rx_numcfg app n m : numcfg (rx_cfg app n m) (CSize m) /\ c_cap (rx_cfg app n m) = Some n.
Proof. repeat split. Qed.
(* the run: the directory (name, kind, content), the buffer, the error channel, the rest of the oracle, the result codes *)
Definition rx_run (app : bool) (n : nat) (m : N) (fl : list bool) (ops : list op)
  : list (bytes * N * bytes) * option bytes * list ecode * list bool * list N :=
  let r := run (fsys 0 0 fl) (OStart (rx_cfg app n m) :: ops) in
  (snap_of (fst r), pend_of (fst r), werrs (s_w (fst r)), wfaults (s_w (fst r)), List.map obs_code (tl (snd r))).
(* the specification as a directory; and the lost records *)
Definition rx_sim (app : bool) (n : nat) (m : N) (fl : list bool) (ops : list op)
  : list (bytes * N * bytes) * option bytes * list ecode * list bool * list N * list bytes :=
  let '(st, e, rest, codes, lost) := simrb_run n app m (RInit false) fl ops in
  (List.map (fun p => (rname (rx_cfg app n m) (fst p), 0%N, snd p)) (number 0 (rb_closed st))
   ++ match rb_cur st with Some d => [(cname (rx_cfg app n m), 0%N, d)] | None => [] end, rb_pend st, e, rest, codes, lost).

(* capacity 10, size limit 3, no append.  The first log call lists, renames, opens (three oracle entries); "ab" and "cd"
   stay in the buffer; "ef" finds 4 > 3 accepted bytes and rotates: rename (ok), create (ok), flush of the old buffer
   into r00000: fails (EFlush reported), its drop tries again: fails silently.  "ab" and "cd" are LOST - two records, one
   report -, an EMPTY r00000 stays, "ef" goes on in the new buffer and reaches rCURRENT with the drop *)
Example rx_rotation_loses_buffer :
  rx_run false 10 3 [F;F;F; F;F;T;T] [W "ab"; W "cd"; W "ef"; OStop]
  = ([(r0, 0%N, []); (rC, 0%N, bs "ef")], None, [EFlush], [], [0; 0; 0; 0]%N)
  /\ rx_sim false 10 3 [F;F;F; F;F;T;T] [W "ab"; W "cd"; W "ef"; OStop]
     = ([(r0, 0%N, []); (rC, 0%N, bs "ef")], None, [EFlush], [], [0; 0; 0; 0]%N, [bs "ab"; bs "cd"]).
Proof. split; vm_compute; reflexivity. Qed.
(* the second attempt (the silent one of the drop) succeeds: reported although nothing is lost *)
Example rx_rotation_second_attempt :
  rx_run false 10 3 [F;F;F; F;F;T;F] [W "ab"; W "cd"; W "ef"; OStop]
  = ([(r0, 0%N, bs "abcd"); (rC, 0%N, bs "ef")], None, [EFlush], [], [0; 0; 0; 0]%N).
Proof. vm_compute; reflexivity. Qed.
(* the rename fails: ELogFile; the record goes to the OLD BufWriter, the next record rotates *)
Example rx_rename_fails :
  rx_run false 10 3 [F;F;F; T] [W "ab"; W "cd"; W "ef"; W "g"; OStop]
  = ([(r0, 0%N, bs "abcdef"); (rC, 0%N, bs "g")], None, [ELogFile], [], [0; 0; 0; 0; 0]%N).
Proof. vm_compute; reflexivity. Qed.
(* no failure: the buffered bytes count for the size rule, each file is written when it is closed *)
Example rx_none :
  rx_run false 10 3 [] [W "ab"; W "cd"; W "ef"; W "gh"; W "i"]
  = ([(r0, 0%N, bs "abcd"); (r1, 0%N, bs "efgh"); (rC, 0%N, [])], Some (bs "i"), [], [], [0; 0; 0; 0; 0]%N).
Proof. vm_compute; reflexivity. Qed.

(* run and specification agree on ALL fault oracles up to length 9 (1023 oracles) / 8 (511), for five settings *)
Definition ragree (app : bool) (n : nat) (m : N) (ops : list op) (fl : list bool) : bool :=
  let '(d1, p1, e1, f1, c1) := rx_run app n m fl ops in
  let '(d2, p2, e2, f2, c2, _) := rx_sim app n m fl ops in
  leqb ent_eqb d1 d2 && opt_eqb p1 p2 && leqb ec_eqb e1 e2 && leqb Bool.eqb f1 f2 && leqb N.eqb c1 c2.
Lemma faults_buffered_rotation_nodup c n m t0 off fl ops : numcfg c (CSize m) -> c_cap c = Some n -> Forall rop_stop ops ->
  nodup_names (wfs (s_w (fst (run (fsys t0 off fl) (OStart c :: ops))))).
Proof.
  intros Hcfg Hcap Hb. rewrite run_start.
  pose proof (frun_b c n m Hcfg Hcap ops _ _ _ _ Hb (finvb_start c n m t0 off fl)) as R.
  destruct (simrb_run n (c_append c) m (RInit false) fl ops) as [[[[st e] fl'] codes] lost].
  destruct R as [x' [obs [R [I O]]]]. rewrite R. exact (proj2 (proj1 (finvb_final c n m x' st _ fl' I))).
Qed.

Lemma obs_codes codes obs : Forall2 obs_code_is codes obs -> List.map obs_code obs = codes.
Proof. induction 1 as [|k o codes obs [rot ->] _ IH]; [reflexivity|]. cbn [List.map obs_code]. rewrite IH. reflexivity. Qed.

(* the names of the specification's directory are in ascending order: this concerns the specification alone *)
Definition rx_sorted (app : bool) (n : nat) (m : N) (ops : list op) (fl : list bool) : bool :=
  SnapFacts.ascending (List.map SnapFacts.ent_name (fst (fst (fst (fst (fst (rx_sim app n m fl ops))))))).

(* run and specification agree wherever the names are in ascending order: this is faults_buffered_rotation *)
Theorem ragree_holds app n m ops fl : Forall rop_stop ops -> rx_sorted app n m ops fl = true -> ragree app n m ops fl = true.
Proof.
  intros Hb Hs. destruct (rx_numcfg app n m) as [Hcfg Hcap].
  pose proof (faults_buffered_rotation (rx_cfg app n m) n m 0 0 fl ops Hcfg Hcap Hb) as Fr.
  pose proof (faults_buffered_rotation_nodup (rx_cfg app n m) n m 0 0 fl ops Hcfg Hcap Hb) as Nd.
  cbv zeta in Fr. change (c_append (rx_cfg app n m)) with app in Fr.
  unfold rx_sorted, rx_sim in Hs. unfold ragree, rx_run, rx_sim.
  destruct (simrb_run n app m (RInit false) fl ops) as [[[[st e'] rest] codes] lost]. cbn [fst] in Hs.
  destruct Fr as [_ [V [P [He [Hf [obs [Eo O]]]]]]].
  change (snap_of (fst (run (fsys 0 0 fl) (OStart (rx_cfg app n m) :: ops))))
    with (TsReader.snap_list (wfs (s_w (fst (run (fsys 0 0 fl) (OStart (rx_cfg app n m) :: ops)))))).
  rewrite (view_snap _ _ _ _ V Nd Hs), P, He, Hf, Eo. cbn [tl]. rewrite (obs_codes _ _ O).
  rewrite (leqb_refl ent_eqb ent_eqb_refl), opt_eqb_refl, (leqb_refl ec_eqb ec_eqb_refl), (leqb_refl Bool.eqb Bool.eqb_reflx),
    (leqb_refl N.eqb N.eqb_refl). reflexivity.
Qed.

Lemma ragree_all app n m ops ls : Forall rop_stop ops ->
  forallb (rx_sorted app n m ops) ls = true -> forallb (ragree app n m ops) ls = true.
Proof. intros Hb Hs. rewrite forallb_forall in *. intros fl Ifl. exact (ragree_holds app n m ops fl Hb (Hs fl Ifl)). Qed.

Example rx_agree_all :
  forallb (ragree false 3 3 [W "ab"; W "cd"; W "e"; W "fgh"; OFlush; W "ij"; W "k"; OStop]) (all_lists 9) = true
  /\ forallb (ragree true 3 3 [W "ab"; W "cd"; W "e"; W "fgh"; OFlush; W "ij"; W "k"; OStop]) (all_lists 9) = true
  /\ forallb (ragree false 4 2 [W "a"; W "bc"; W ""; W "defgh"; W "i"; OFlush; W "jk"; W "l"; OStop; W "x"]) (all_lists 9) = true
  /\ forallb (ragree true 10 3 [W "ab"; W "cd"; W "ef"; W "gh"; W "ij"; W "kl"; OStop]) (all_lists 9) = true
  /\ forallb (ragree false 0 3 [W "ab"; W "cd"; W "ef"; W "gh"; OStop]) (all_lists 8) = true.
Proof. repeat apply conj; (apply ragree_all; [repeat constructor | vm_compute; reflexivity]). Qed.
