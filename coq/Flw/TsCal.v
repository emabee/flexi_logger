(* The days 0 .. 2932896 are 1970-01-01 .. 9999-12-31: the dates the time-stamp text has room for. *)
Require Import FL.Time.Civil FL.Time.CivilFacts.
From Coq Require Import ZArith Lia.
Open Scope Z_scope.

Definition day_max : Z := 2932897.

(* the calendar date grows with the day; the days before the first and after the last are 1969-12-31 and 10000-01-01 *)
Lemma civil_days_ok z : 0 <= z < day_max ->
  let '(y, m, d) := civil_from_days z in 0 <= y <= 9999 /\ 1 <= m <= 12 /\ 1 <= d <= 31.
Proof.
  unfold day_max. intros Hz.
  pose proof (civil_from_days_mono (-1) z ltac:(lia)) as Lo. change (civil_from_days (-1)) with (1969, 12, 31) in Lo.
  pose proof (civil_from_days_mono z 2932897 ltac:(lia)) as Hi. change (civil_from_days 2932897) with (10000, 1, 1) in Hi.
  pose proof (civil_from_days_valid z) as V. destruct (civil_from_days z) as [[y m] d].
  pose proof (days_in_month_le y m). unfold lex3 in *. lia.
Qed.
