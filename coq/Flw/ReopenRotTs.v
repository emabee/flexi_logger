(* C18 with rotation, Timestamps naming (rCURRENT + r<time stamp>[.restart-NNNN]): reopen_outputfile() after an external
   rename of rCURRENT and reopen_outputfile() with the file in place.  The analogue
   of ReopenRot.v (Numbers), ReopenRotD.v (NumbersDirect), ReopenRotTsd.v (TimestampsDirect).

   What the model does:
   - reopen_outputfile() keeps the whole rotation state, in particular the naming state NSTs ts: the time stamp of the start
     of the rCURRENT that was MOVED AWAY.  The new rCURRENT that the reopen creates (at the time of the reopen) is therefore
     closed, at the next rotation, under the time stamp of the moved file's start - not under the time of its own creation:
     its key is (ts1, count ts1 keys1), exactly the key the moved file would have got (reopen_timestamps, last conjuncts;
     ext_reopen_stamp).  The name is NOT used twice (the moved file never had it), the restart counter is the right one
     (collision_free_infix counts the files of that second that are there), the keys of the family are those of a history
     without the rename (ext_reopen_same_keys), the reader's order is the order of writing.  The only oddity: a file whose
     name says "started at ts1" was created later (ext_reopen_stamp: name ..00-00-00.restart-0000, created at second 9).
   - the size count / creation date of the roll state survive too (as with the other namings): when the moved file was over
     the size limit the new rCURRENT is rotated EMPTY by the first record after the reopen (ext_reopen_empty_file).
   - the new writer is an unbuffered File until the next rotation; the buffered tail of the old BufWriter is flushed into the
     inode it has open: the moved file.
   - the name the file is moved to must not be a member of the family (ts_member).  A member name is never overwritten, but a
     name with a LATER time stamp misplaces the records in the reader's order (ext_reopen_family_name_misplaces).
   Main statements: reopen_timestamps, reopen_timestamps_in_place (both for histories ops1 with at least one record).
   Not covered here: reset(builder) to another Timestamps family; histories ops1 without a record (wrote ops1 = false). *)
Require Import FL.Base.Bytes FL.Base.BytesFacts FL.Base.PathName FL.Fs.Fs FL.Fs.FsFacts FL.Time.Civil FL.Time.TsFormat
  FL.Names.FileSpec FL.Names.NamesFacts FL.Names.SortFacts FL.Names.FamilyFacts FL.Flw.Model FL.Flw.ModelFacts FL.Flw.QuietFacts FL.Flw.NumFs
  FL.Flw.NumInv FL.Flw.Run FL.Flw.RunFacts FL.Flw.NumRun FL.Oracles.O_Flw FL.Flw.NumTheorems FL.Flw.NumListing
  FL.Flw.TsCal FL.Flw.TsTime FL.Flw.TsMono FL.Flw.TsNames FL.Flw.TsInv FL.Flw.TsRun FL.Flw.TsTheorems FL.Flw.TsRestart
  FL.Flw.ForeignFs FL.Flw.ForeignModel FL.Flw.NumForeign FL.Flw.TsForeignFacts FL.Flw.MemberPattern
  FL.Flw.ReopenRot FL.Flw.ReopenRotTsd.
From Coq Require Import ZifyN ZifyNat ZifyBool.
Open Scope nat_scope.

(* ================================================================== the search under the invariant with other files in the directory *)
Lemma cname_not_tsd c : tsd_member c (cname c) = false.
Proof.
  destruct (tsd_member c (cname c)) eqn:E; [|reflexivity]. apply tsd_member_iff in E. destruct (cname_not_ts_pattern c E).
Qed.

Lemma ts_member_false c n : ts_member c n = false -> tsd_member c n = false /\ n <> cname c.
Proof.
  unfold ts_member. intros H. apply orb_false_iff in H. destruct H as [H1 H2]. split; [exact H1|].
  intros ->. rewrite beq_refl in H2. discriminate.
Qed.

Lemma tsinvx_dir c e lo w wr keys closed ts extra : TsInvX c e lo w wr keys closed ts extra ->
  dir_isx c e (wfs w) keys (cname c :: List.map fst extra).
Proof.
  intros I. pose proof I as [Q W Hnd Hoff Hc Hcp Hlen Hcl Hex Hon Hfr Hko Hrg Htsr Hwr]. split.
  - intros k Ik. destruct (In_nth keys k kd Ik) as [i [Hi E]]. rewrite Hlen in Hi.
    destruct (Hcl i Hi) as [j [Lj [[_ Pd] _]]]. rewrite E in Lj. eauto.
  - intros n j L. destruct (Hon n j L) as [->|[[i [Hi ->]]|Hx]]; [right; left; reflexivity | left | right; right; exact Hx].
    exists (nth i keys kd). split; [apply nth_In; rewrite Hlen; exact Hi | reflexivity].
Qed.

(* the search for a free infix is answered by the next key *)
Lemma cfi_tsinvx c e lo hi w wr keys closed ts extra :
  tag_ok c -> years_ok e lo hi -> TsInvX c e lo w wr keys closed ts extra -> (wnow w <= hi)%Z ->
  (N.of_nat (length closed) <= usize_max)%N -> (forall n, In n (List.map fst extra) -> ts_member c n = false) ->
  collision_free_infix (woff w) (c_spec c) (fixed0 c) (wfs w) (tsx e ts) = Some (Some (infix_of e (ts, count ts keys))).
Proof.
  intros T Y I Hhi Hmax Hfor. destruct (tsinvx_years _ _ _ _ _ _ _ _ _ _ I Y Hhi) as [Yts Yk].
  apply (collision_free_infix_ts_x c e (woff w) (wfs w) keys (cname c :: List.map fst extra) ts (count ts keys) T Yts Yk
           (tsinvx_dir _ _ _ _ _ _ _ _ _ I)).
  - intros x [<-|Hx]; [apply cname_not_tsd | exact (proj1 (ts_member_false c x (Hfor x Hx)))].
  - exact (keys_count keys (ux_keys _ _ _ _ _ _ _ _ _ I) ts).
  - pose proof (count_le_length ts keys). pose proof (ux_len _ _ _ _ _ _ _ _ _ I). lia.
Qed.

(* ================================================================== histories on the generalised invariant *)
(* the keys are only ever extended; the first key added after (keys0, ts0) carries the time stamp ts0 *)
Definition kchain (keys0 : list key) (ts0 : Z) (keys : list key) (ts : Z) : Prop :=
  (keys = keys0 /\ ts = ts0) \/ exists tl, keys = keys0 ++ (ts0, count ts0 keys0) :: tl.

Lemma kchain_rot keys0 ts0 keys ts t' : kchain keys0 ts0 keys ts -> kchain keys0 ts0 (keys ++ [(ts, count ts keys)]) t'.
Proof.
  intros [[-> ->]|[tl ->]]; right.
  - exists []. reflexivity.
  - eexists. rewrite <- app_assoc. cbn [app]. reflexivity.
Qed.

(* the abstract view (xview, x_step, x_run of ReopenRot.v; the ghost size is not used here); n bounds the number of closed files *)
Definition RelTX (c : config) (e lo : Z) (extra : list (bytes * bytes)) (keys0 : list key) (ts0 : Z) (n : nat)
                 (x : sys) (v : xview) : Prop :=
  let '(closed, cur, g) := v in
  s_tl x = [] /\ wacts (s_w x) = 0 /\
  exists keys wr roll ts, s_flw x = Some (st_ts c ts roll wr) /\ TsInvX c e lo (s_w x) wr keys closed ts extra
    /\ cur_view (s_w x) wr = cur /\ length closed <= n /\ kchain keys0 ts0 keys ts.

Lemma step_sync_reltx c crit e lo extra keys0 ts0 n x v o : tscfg c crit -> RelTX c e lo extra keys0 ts0 n x v ->
  step x o = sync_step x o.
Proof.
  intros [_ [Hts [_ Ha]]] R. destruct v as [[closed cur] g]. destruct R as [_ [_ [keys [wr [roll [ts [Es _]]]]]]].
  exact (RunFacts.step_sync_cfg x o _ Es Hts Ha).
Qed.

Lemma RelTX_mono c e lo extra keys0 ts0 n x v : RelTX c e lo extra keys0 ts0 n x v -> RelTX c e lo extra keys0 ts0 (S n) x v.
Proof.
  destruct v as [[closed cur] g]. intros [Ht [Ha [keys [wr [roll [ts [Es [I [V [Hn K]]]]]]]]]].
  split; [exact Ht|]. split; [exact Ha|]. exists keys, wr, roll, ts.
  split; [exact Es|]. split; [exact I|]. split; [exact V|]. split; [lia | exact K].
Qed.

Lemma write_reltx c crit e lo hi extra keys0 ts0 n x v b :
  tscfg c crit -> tag_ok c -> years_ok e lo hi -> (forall n, In n (List.map fst extra) -> ts_member c n = false) ->
  RelTX c e lo extra keys0 ts0 n x v ->
  (wnow (s_w x) <= hi)%Z -> (N.of_nat n <= usize_max)%N ->
  exists s w' s' rot, s_flw x = Some s /\ f_poisoned s = false /\
    write_buffer s (s_w x) b = (Ok tt, w', s', rot)
    /\ RelTX c e lo extra keys0 ts0 (S n) {| s_flw := Some s'; s_w := w'; s_tl := []; s_dead := s_dead x |} (x_step v (OWrite b) rot)
    /\ wnow w' = wnow (s_w x).
Proof.
  intros Hcfg T Y Hfor R Hhi Hmax. destruct v as [[closed cur] g].
  destruct R as [Ht [Ha [keys [wr [roll [ts [Es [I [V [Hn K]]]]]]]]]].
  destruct (write_buffer_tsx c crit e lo hi (s_w x) wr keys closed ts extra roll b Hcfg Y I Hhi
              (cfi_tsinvx c e lo hi (s_w x) wr keys closed ts extra T Y I Hhi ltac:(lia) Hfor))
    as [w' [wr' [E [I' [_ [S' [V' _]]]]]]].
  eexists (st_ts c ts roll wr), w', _, (rotation_necessary (s_w x) roll).
  split; [exact Es|]. split; [reflexivity|]. split; [exact E|].
  split; [|exact (same_env_now _ _ S')].
  cbn [x_step]. rewrite V in V', I'.
  destruct (rotation_necessary (s_w x) roll);
    (split; [reflexivity|]; split; [cbn [s_w]; exact (same_env_acts _ _ S' Ha)|];
     eexists _, wr', _, _; cbn [s_flw s_w];
     split; [reflexivity|]; split; [exact I'|]; split; [exact V'|]; split; [rewrite ?app_length; cbn [length]; lia|]).
  - apply kchain_rot. exact K.
  - exact K.
Qed.

Lemma step_reltx c crit e lo hi extra keys0 ts0 n x v o :
  tscfg c crit -> tag_ok c -> years_ok e lo hi -> (forall n, In n (List.map fst extra) -> ts_member c n = false) ->
  RelTX c e lo extra keys0 ts0 n x v -> basic_op o -> tick_ok o ->
  (wnow (s_w x) <= hi)%Z -> (N.of_nat n <= usize_max)%N ->
  let '(x', ob) := step x o in
  RelTX c e lo extra keys0 ts0 (S n) x' (x_step v o (rot_of ob)) /\ wnow (s_w x') = (wnow (s_w x) + dt_of o)%Z.
Proof.
  intros Hcfg T Y Hfor R Hb Htk Hhi Hmax. rewrite (step_sync_reltx c crit e lo extra keys0 ts0 n x v o Hcfg R).
  destruct o; try contradiction; cbn [sync_step dt_of].
  - (* OWrite *)
    destruct (write_reltx c crit e lo hi extra keys0 ts0 n x v b Hcfg T Y Hfor R Hhi Hmax) as [s [w' [s' [rot [Es [Hp [E [R' Hw]]]]]]]].
    assert (Ht : s_tl x = []) by (destruct v as [[? ?] ?]; apply R).
    rewrite Es, Hp. rewrite Ht. cbn [app]. rewrite E. cbn [rot_of s_w]. split; [exact R' | lia].
  - (* OPlain *)
    destruct (write_reltx c crit e lo hi extra keys0 ts0 n x v b Hcfg T Y Hfor R Hhi Hmax) as [s [w' [s' [rot [Es [Hp [E [R' Hw]]]]]]]].
    assert (Ht : s_tl x = []) by (destruct v as [[? ?] ?]; apply R).
    rewrite Es, Hp, E. cbn [rot_of code_of s_w]. rewrite Ht. split; [exact R' | lia].
  - (* OFlush *)
    destruct v as [[closed cur] g]. destruct R as [Ht [Ha [keys [wr [roll [ts [Es [I [V [Hn K]]]]]]]]]]. rewrite Es. cbn [st_ts f_poisoned].
    destruct (flush_active_tsx c e lo (s_w x) wr keys closed ts extra roll I) as [w' [wr' [E [I' [V' [P' [S' _]]]]]]].
    fold (st_ts c ts roll wr). rewrite E. cbn [rot_of x_step s_w].
    split; [|rewrite (same_env_now _ _ S'); lia].
    split; [exact Ht|]. split; [exact (same_env_acts _ _ S' Ha)|]. exists keys, wr', roll, ts. cbn [s_flw s_w].
    split; [reflexivity|]. split; [exact I'|]. split; [congruence|]. split; [lia | exact K].
  - (* OTrigger *)
    destruct v as [[closed cur] g]. destruct R as [Ht [Ha [keys [wr [roll [ts [Es [I [V [Hn K]]]]]]]]]].
    rewrite Es. cbn [st_ts f_poisoned f_cfg f_inner].
    destruct (mount_next_tsx c crit e lo hi (s_w x) wr keys closed ts extra roll true Hcfg Y I Hhi
                (cfi_tsinvx c e lo hi (s_w x) wr keys closed ts extra T Y I Hhi ltac:(lia) Hfor) eq_refl)
      as [w' [wr' [E [I' [_ [V' [S' _]]]]]]].
    rewrite E. cbn [rot_of x_step code_of with_inner f_cfg f_poisoned s_w].
    split; [|rewrite (same_env_now _ _ S'); lia].
    split; [exact Ht|]. split; [exact (same_env_acts _ _ S' Ha)|]. rewrite V in *.
    exists (keys ++ [(ts, count ts keys)]), wr', (reset_roll roll (wnow (s_w x))), (wnow (s_w x)). cbn [s_flw s_w].
    split; [reflexivity|]. split; [exact I'|]. split; [exact V'|]. split; [rewrite app_length; cbn [length]; lia|].
    apply kchain_rot. exact K.
  - (* OTick *)
    cbn [rot_of x_step s_w set_now wnow tick_ok] in *. split; [|reflexivity].
    destruct v as [[closed cur] g]. destruct R as [Ht [Ha [keys [wr [roll [ts [Es [I [V [Hn K]]]]]]]]]].
    split; [exact Ht|]. split; [exact Ha|]. exists keys, wr, roll, ts. cbn [s_flw s_w].
    split; [exact Es|]. split; [apply tsinvx_tick; assumption|]. split; [exact V|]. split; [lia | exact K].
  - (* OSnap *)
    cbn [rot_of x_step]. split; [apply RelTX_mono; destruct v as [[closed cur] g]; exact R | lia].
Qed.

Lemma run_reltx c crit e lo hi extra keys0 ts0 : tscfg c crit -> tag_ok c -> years_ok e lo hi ->
  (forall n, In n (List.map fst extra) -> ts_member c n = false) ->
  forall ops x v n, RelTX c e lo extra keys0 ts0 n x v -> Forall basic_op ops -> Forall tick_ok ops ->
  (wnow (s_w x) + elapsed ops <= hi)%Z -> (N.of_nat (n + length ops) <= usize_max)%N ->
  RelTX c e lo extra keys0 ts0 (n + length ops) (fst (run x ops)) (x_run v ops (snd (run x ops)))
  /\ wnow (s_w (fst (run x ops))) = (wnow (s_w x) + elapsed ops)%Z.
Proof.
  intros Hcfg T Y Hfor. induction ops as [|o r IH]; intros x v n R Hb Htk Hhi Hmax.
  - cbn [run fst snd x_run length elapsed]. rewrite Nat.add_0_r. split; [exact R | lia].
  - cbn [run]. inversion Hb as [|o' r' Ho Hr]; subst. inversion Htk as [|o' r' Hto Htr]; subst.
    cbn [elapsed length] in *. pose proof (elapsed_nonneg r Htr) as Er.
    assert (Hdt : (0 <= dt_of o)%Z) by (destruct o; cbn [dt_of tick_ok] in *; lia).
    pose proof (step_reltx c crit e lo hi extra keys0 ts0 n x v o Hcfg T Y Hfor R Ho Hto ltac:(lia) ltac:(lia)) as S. destruct (step x o) as [x1 ob].
    destruct S as [R1 W1]. specialize (IH x1 _ (S n) R1 Hr Htr ltac:(lia) ltac:(lia)). destruct (run x1 r) as [x2 obs].
    cbn [fst snd x_run] in *. replace (n + S (length r)) with (S n + length r) by lia. destruct IH as [IH1 IH2]. split; [exact IH1 | lia].
Qed.

(* ------------------------------------------------------------------ stop: what the reader finds *)
(* the closed files under their keys, rCURRENT, the other files with their contents, nothing else *)
Definition tsx_view (c : config) (e : Z) (f : fs) (keys : list key) (closed : list bytes) (cur : bytes)
                    (extra : list (bytes * bytes)) : Prop :=
  length keys = length closed
  /\ (forall i, i < length closed ->
        exists j, lookup f (kname c e (nth i keys kd)) = Some j /\ plain (inode f j) /\ content f j = nth i closed [])
  /\ (exists j, lookup f (cname c) = Some j /\ plain (inode f j) /\ content f j = cur)
  /\ (forall n d, In (n, d) extra -> exists j, lookup f n = Some j /\ plain (inode f j) /\ content f j = d)
  /\ (forall n j, lookup f n = Some j ->
        n = cname c \/ (exists i, i < length closed /\ n = kname c e (nth i keys kd)) \/ In n (List.map fst extra))
  /\ NoDup (dir_names f).

Lemma tsx_view_nil c e f keys closed cur : tsx_view c e f keys closed cur [] <-> ts_view c e f keys closed cur.
Proof.
  split.
  - intros [A [B [C [_ [D E]]]]]. split; [exact A|]. split; [exact B|]. split; [exact C|]. split; [|exact E].
    intros n j L. destruct (D n j L) as [H|[H|[]]]; [left | right]; exact H.
  - intros [A [B [C [D E]]]]. split; [exact A|]. split; [exact B|]. split; [exact C|]. split; [intros n d []|]. split; [|exact E].
    intros n j L. destruct (D n j L) as [H|H]; [left | right; left]; exact H.
Qed.

Lemma stop_tsx_core c crit e lo extra x keys wr roll ts closed :
  tscfg c crit -> s_flw x = Some (st_ts c ts roll wr) -> wacts (s_w x) = 0 -> TsInvX c e lo (s_w x) wr keys closed ts extra ->
  tsx_view c e (wfs (s_w (fst (step x OStop)))) keys closed (cur_view (s_w x) wr) extra.
Proof.
  intros [_ [Hts [_ Hasync]]] Es Ha I. rewrite (RunFacts.step_sync_cfg x OStop _ Es Hts Hasync). cbn [sync_step].
  rewrite Es. unfold st_ts. cbn [f_poisoned].
  rewrite drop_state_quiet by exact (ux_quiet _ _ _ _ _ _ _ _ _ I). cbn [fst s_w].
  destruct (tsinvx_flushed _ _ _ _ _ _ _ _ _ I) as [[Q W Hnd Hoff Hc Hcp Hlen Hcl Hex Hon Hfo Hko Hrg Htsr Hwr] V2].
  split; [exact Hlen|]. split.
  { intros i Hi. destruct (Hcl i Hi) as [j [Lj [Pj [Cj _]]]]. eauto. }
  split.
  { exists (wino wr). split; [exact Hc|]. split; [exact Hcp|].
    rewrite <- V2. unfold cur_view. cbn [emptied wino wpend]. rewrite app_nil_r. reflexivity. }
  split.
  { intros n d Hin. destruct (Hex n d Hin) as [j [Lj [Pj [Cj _]]]]. eauto. }
  split; [exact Hon | exact Hnd].
Qed.

Lemma stop_reltx c crit e lo extra keys0 ts0 n x closed cur g : tscfg c crit -> RelTX c e lo extra keys0 ts0 n x (closed, cur, g) ->
  exists keys ts, tsx_view c e (wfs (s_w (fst (step x OStop)))) keys closed cur extra /\ keys_ok keys
               /\ (forall k, In k keys -> (lo <= fst k <= wnow (s_w x))%Z) /\ kchain keys0 ts0 keys ts.
Proof.
  intros Hcfg [Ht [Ha [keys [wr [roll [ts [Es [I [V [_ K]]]]]]]]]]. exists keys, ts.
  split; [rewrite <- V; exact (stop_tsx_core c crit e lo extra x keys wr roll ts closed Hcfg Es Ha I)|].
  split; [exact (ux_keys _ _ _ _ _ _ _ _ _ I)|]. split; [|exact K].
  intros k Ik. pose proof (ux_range _ _ _ _ _ _ _ _ _ I k Ik). pose proof (ux_ts _ _ _ _ _ _ _ _ _ I). lia.
Qed.

(* ================================================================== reopen_outputfile() *)
(* the time stamp in the naming state: the start of the current rCURRENT as the writer remembers it *)
Definition ns_stamp (x : sys) : option Z :=
  match s_flw x with
  | Some s => match f_inner s with
              | Active (Some rs) _ _ => match rs_naming rs with NSTs ts _ _ => Some ts | _ => None end
              | _ => None end
  | None => None
  end.

(* somebody renames rCURRENT to a name outside the family, then reopen_outputfile(): the renamed file gets the buffered
   tail, a new empty rCURRENT exists, the rotation state - with the time stamp of the moved file's start - is kept *)
Lemma reopen_moved_step_ts c crit e lo hi n x keys wr roll ts cl cu moved :
  tscfg c crit -> years_ok e lo hi -> (wnow (s_w x) <= hi)%Z ->
  s_tl x = [] -> wacts (s_w x) = 0 ->
  s_flw x = Some (st_ts c ts roll wr) -> TsInv c e lo (s_w x) wr keys cl ts ->
  cur_view (s_w x) wr = cu -> length cl <= n ->
  ts_member c moved = false ->
  exists x2, run x [OExtRename (cname c) moved; OReopen] = (x2, [ObsRes 0 false; ObsRes 0 false])
    /\ RelTX c e lo [(moved, cu)] keys ts n x2 (cl, [], 0) /\ wnow (s_w x2) = wnow (s_w x) /\ ns_stamp x2 = Some ts.
Proof.
  intros Hcfg Y Hhi Ht Ha Es I V Hn Hm. pose proof Hcfg as [Hrot [Hts [Hlink Hasync]]].
  pose proof I as [Q W Hnd Hoff Hc Hcp Hlen Hcl Hon Hko Hrg Htsr Hwr Hcap].
  destruct (ts_member_false c moved Hm) as [Hm1 Hm2].
  assert (Yk : forall k, In k keys -> in_years e (fst k)).
  { intros k Ik. apply (years_in e lo hi); [exact Y|]. specialize (Hrg k Ik). lia. }
  assert (Hmx : forall n0, In n0 [moved] -> tsd_member c n0 = false) by (intros n0 [<-|[]]; exact Hm1).
  assert (Hmk : forall k, In k keys -> moved <> kname c e k).
  { intros k Ik E. apply (kname_not_extra c e k [moved] Hmx (Yk k Ik)). left. exact E. }
  assert (Hfree : lookup (wfs (s_w x)) moved = None).
  { destruct (lookup (wfs (s_w x)) moved) as [j|] eqn:E; [|reflexivity]. exfalso.
    destruct (Hon _ _ E) as [E1|[i [Hi E1]]]; [exact (Hm2 E1)|]. apply (Hmk (nth i keys kd)); [apply nth_In; lia | exact E1]. }
  cbn [run]. rewrite (RunFacts.step_sync_cfg x (OExtRename (cname c) moved) _ Es Hts Hasync).
  destruct (rotate_fs_spec (wfs (s_w x)) (cname c) moved (wino wr) (wpend wr) (wnow (s_w x)) W
              (fun E => Hm2 (eq_sym E)) Hc Hfree) as [f1 [Er R]].
  cbn zeta in R. destruct R as [L1c [Hino1 [W3 [Hnew [L3c [L3t [L3o [Hlen3 [Inew [Iold Ioth]]]]]]]]]].
  cbn [sync_step]. rewrite Er.
  set (w1 := set_fs (s_w x) f1).
  set (x1 := {| s_flw := s_flw x; s_w := w1; s_tl := s_tl x; s_dead := s_dead x |}).
  assert (Q1 : quiet w1) by exact Q.
  rewrite (RunFacts.step_sync_cfg x1 OReopen _ Es Hts Hasync).
  cbn [sync_step x1 s_flw s_w s_tl s_dead]. rewrite Es. cbn [st_ts f_poisoned].
  unfold st_ts. rewrite (reopen_state_quiet c false w1 _ wr (cname c) Q1).
  assert (Eopen : open_append (wfs w1) (cname c) (wnow w1) = create_file f1 (cname c) 0%N (wnow (s_w x))).
  { apply open_append_fresh. exact L1c. }
  rewrite Eopen. cbn [code_of].
  set (new := snd (create_file f1 (cname c) 0%N (wnow (s_w x)))) in *.
  set (f3 := append_ino (fst (create_file f1 (cname c) 0%N (wnow (s_w x)))) (wino wr) (wpend wr)) in *.
  set (w3 := flushed (set_fs w1 (fst (create_file f1 (cname c) 0%N (wnow (s_w x))))) wr).
  assert (F3' : wfs w3 = f3) by reflexivity.
  set (wr' := {| wino := new; wpend := []; wcap := None |}).
  assert (Enow : wnow w3 = wnow (s_w x)) by reflexivity.
  eexists. split; [reflexivity|]. cbn [s_w].
  pose proof (wf_bound _ W _ _ Hc) as Hold.
  assert (A3 : wacts w3 = 0) by exact Ha.
  split; [|split; [exact Enow | reflexivity]].
  split; [exact Ht|]. split; [exact A3|]. exists keys, wr', roll, ts. cbn [s_flw s_w].
  split; [reflexivity|]. split.
  { constructor.
    - exact Q.
    - rewrite F3'. exact W3.
    - rewrite F3'. unfold f3. change (dir_names (append_ino ?g _ _)) with (dir_names g).
      apply create_nodup; [exact (rename_nodup _ _ _ _ Hnd Er) | exact L1c].
    - exact Hoff.
    - rewrite F3'. exact L3c.
    - rewrite F3'. cbn [wr' wino]. rewrite Inew. split; reflexivity.
    - exact Hlen.
    - intros i Hi. rewrite F3'. destruct (Hcl i Hi) as [j [Lj [Pj [Cj Hj2]]]].
      exists j. rewrite L3o.
      + split; [exact Lj|].
        assert (Hj1 : j <> new). { pose proof (wf_bound _ W _ _ Lj). rewrite Hnew. lia. }
        unfold content. rewrite Ioth by assumption. split; [exact Pj|]. split; [exact Cj | exact Hj1].
      + intros E. rewrite E, Hc in Lj. injection Lj as <-. exact (Hj2 eq_refl).
      + intros E. rewrite E, Hfree in Lj. discriminate.
    - intros n0 d [E|[]]. injection E as <- <-. rewrite F3'. exists (wino wr). split; [exact L3t|]. split.
      + rewrite Iold. exact Hcp.
      + split; [|cbn [wr' wino]; rewrite Hnew; lia].
        unfold content at 1. rewrite Iold. cbn [with_data fdata]. exact V.
    - intros n0 j Hn0. rewrite F3' in Hn0.
      destruct (beq_spec n0 (cname c)) as [->|Hn1]; [left; reflexivity|].
      destruct (beq_spec n0 moved) as [->|Hn2]; [right; right; left; reflexivity|].
      rewrite L3o in Hn0 by assumption. destruct (Hon _ _ Hn0) as [E|E]; [contradiction | right; left; exact E].
    - intros n0 [<-|[]]. split; [exact Hm2|]. intros k Yk0 E. apply (kname_not_extra c e k [moved] Hmx Yk0). left. exact E.
    - exact Hko.
    - exact Hrg.
    - rewrite Enow. exact Htsr.
    - reflexivity. }
  split. { unfold cur_view. rewrite F3'. cbn [wr' wino wpend]. unfold content. rewrite Inew. reflexivity. }
  split; [exact Hn|]. left. split; reflexivity.
Qed.

(* reopen_outputfile() with the file in place: the same inode is continued, the buffered tail is flushed into it *)
Lemma reopen_inplace_step_ts c crit e lo n x keys wr roll ts cl cu :
  tscfg c crit -> s_tl x = [] -> wacts (s_w x) = 0 ->
  s_flw x = Some (st_ts c ts roll wr) -> TsInv c e lo (s_w x) wr keys cl ts ->
  cur_view (s_w x) wr = cu -> length cl <= n ->
  exists x2, step x OReopen = (x2, ObsRes 0 false)
    /\ RelTX c e lo [] keys ts n x2 (cl, cu, 0) /\ wnow (s_w x2) = wnow (s_w x).
Proof.
  intros Hcfg Ht Ha Es I V Hn. pose proof Hcfg as [Hrot [Hts [Hlink Hasync]]].
  rewrite (RunFacts.step_sync_cfg x OReopen _ Es Hts Hasync).
  pose proof (tsinv_x _ _ _ _ _ _ _ _ I) as IX. pose proof I as [Q W Hnd Hoff Hc Hcp Hlen Hcl Hon Hko Hrg Htsr Hwr Hcap].
  cbn [sync_step]. rewrite Es. cbn [st_ts f_poisoned].
  unfold st_ts. rewrite (reopen_state_quiet c false (s_w x) _ wr (cname c) Q).
  assert (Eopen : open_append (wfs (s_w x)) (cname c) (wnow (s_w x)) = (wfs (s_w x), wino wr)).
  { unfold open_append. rewrite Hc. reflexivity. }
  rewrite Eopen. cbn [fst snd code_of]. rewrite set_fs_id.
  set (wr' := {| wino := wino wr; wpend := []; wcap := None |}).
  destruct (tsinvx_append c e lo (s_w x) (flushed (s_w x) wr) wr wr' keys cl ts [] (wpend wr) IX (flushed_fs _ wr)
              (flushed_env _ wr Q) eq_refl eq_refl) as [I3 C3].
  eexists. split; [reflexivity|]. cbn [s_w]. split; [|reflexivity].
  split; [exact Ht|]. split; [exact Ha|].
  exists keys, wr', roll, ts. cbn [s_flw s_w].
  split; [reflexivity|]. split; [exact I3|].
  split. { unfold cur_view. rewrite C3. cbn [wr' wpend]. rewrite app_nil_r. exact V. }
  split; [exact Hn|]. left. split; reflexivity.
Qed.

(* ================================================================== whole histories *)
Lemma tail_reltx c crit e lo hi extra keys0 ts0 n x cl cu g ops2 :
  tscfg c crit -> tag_ok c -> years_ok e lo hi -> (forall n, In n (List.map fst extra) -> ts_member c n = false) ->
  RelTX c e lo extra keys0 ts0 n x (cl, cu, g) ->
  Forall basic_op ops2 -> Forall tick_ok ops2 ->
  (wnow (s_w x) + elapsed ops2 <= hi)%Z -> (N.of_nat (n + length ops2) <= usize_max)%N ->
  exists keys ts closed2 cur2,
    tsx_view c e (wfs (s_w (fst (run x (ops2 ++ [OStop]))))) keys (cl ++ closed2) cur2 extra
    /\ keys_ok keys /\ kchain keys0 ts0 keys ts
    /\ (forall k, In k keys -> (lo <= fst k <= wnow (s_w x) + elapsed ops2)%Z)
    /\ concat closed2 ++ cur2 = cu ++ written ops2
    /\ (exists t, closed2 ++ [cur2] = (cu ++ t) :: List.tl (closed2 ++ [cur2])).
Proof.
  intros Hcfg T Y Hfor R Hb Htk Hhi Hmax. rewrite run_app.
  pose proof (run_reltx c crit e lo hi extra keys0 ts0 Hcfg T Y Hfor ops2 x _ n R Hb Htk Hhi Hmax) as [R1 W1].
  pose proof (run_length ops2 x) as L.
  pose proof (x_run_ext ops2 (cl, cu, g) (snd (run x ops2))) as X.
  pose proof (x_run_flat ops2 (cl, cu, g) (snd (run x ops2)) Hb L) as Fl.
  destruct (run x ops2) as [x1 obs1]. cbn [fst snd] in *.
  destruct (x_run (cl, cu, g) ops2 obs1) as [[cl3 cu3] g3] eqn:Ev.
  destruct (stop_reltx c crit e lo extra keys0 ts0 _ x1 cl3 cu3 g3 Hcfg R1) as [keys [ts [S [K [Rg KC]]]]].
  cbn [run]. destruct (step x1 OStop) as [x2 ob2]. cbn [fst] in *.
  cbn [x_ext x_flat] in X, Fl.
  assert (Ecl : exists closed2, cl3 = cl ++ closed2 /\ exists t, closed2 ++ [cu3] = (cu ++ t) :: List.tl (closed2 ++ [cu3])).
  { destruct X as [[-> [t ->]]|[t [rest ->]]].
    - exists []. rewrite app_nil_r. split; [reflexivity|]. exists t. reflexivity.
    - exists ((cu ++ t) :: rest). split; [reflexivity|]. exists t. reflexivity. }
  destruct Ecl as [closed2 [-> Ht]]. exists keys, ts, closed2, cu3.
  split; [exact S|]. split; [exact K|]. split; [exact KC|]. split; [rewrite <- W1; exact Rg|]. split; [|exact Ht].
  rewrite concat_app, <- !app_assoc in Fl. apply app_inv_head in Fl. exact Fl.
Qed.

(* ------------------------------------------------------------------ external rename of rCURRENT, then reopen *)
Theorem reopen_timestamps c crit t0 off ops1 ops2 moved :
  tscfg c crit -> tag_ok c -> Forall basic_op ops1 -> Forall basic_op ops2 -> Forall tick_ok (ops1 ++ ops2) ->
  (0 <= t0 + ts_e c off)%Z -> (t0 + elapsed (ops1 ++ ops2) + ts_e c off < sec_max)%Z ->
  (N.of_nat (length (ops1 ++ ops2)) <= usize_max)%N ->
  ts_member c moved = false -> wrote ops1 = true ->
  let e := ts_e c off in
  let x1 := fst (run (sys0 t0 off) (OStart c :: ops1)) in
  let r := run (sys0 t0 off) (OStart c :: ops1 ++ [OExtRename (cname c) moved; OReopen] ++ ops2 ++ [OStop]) in
  let f := wfs (s_w (fst r)) in
  (* reopen_outputfile() succeeds *)
  nth_error (snd r) (S (S (length ops1))) = Some (ObsRes 0 false)
  /\ exists keys1 closed1 cur1 ts1 keys2 closed2 cur2,
       (* keys1, closed1, cur1: the closed files and rCURRENT of the history ops1; ts1: the time stamp in the naming state,
          the start of that rCURRENT *)
       ts_view c e (wfs (s_w (fst (run (sys0 t0 off) (OStart c :: ops1 ++ [OStop]))))) keys1 closed1 cur1
       /\ concat closed1 ++ cur1 = written ops1
       /\ ns_stamp x1 = Some ts1 /\ (t0 <= ts1 <= t0 + elapsed ops1)%Z
       (* the directory: the closed files of ops1 untouched, the files closed during ops2 under further keys, a new rCURRENT,
          and the renamed file with everything written since the last rotation of ops1 (buffered tail included) *)
       /\ tsx_view c e f (keys1 ++ keys2) (closed1 ++ closed2) cur2 [(moved, cur1)]
       /\ keys_ok (keys1 ++ keys2)
       /\ (forall k, In k (keys1 ++ keys2) -> (t0 <= fst k <= t0 + elapsed (ops1 ++ ops2))%Z)
       /\ concat closed2 ++ cur2 = written ops2
       /\ concat (closed1 ++ [cur1] ++ closed2 ++ [cur2]) = written (ops1 ++ ops2)
       (* the rCURRENT created by the reopen is closed under the time stamp of the MOVED file's start, with the restart
          counter that the moved file would have got *)
       /\ (keys2 = [] \/ exists tl, keys2 = (ts1, count ts1 keys1) :: tl).
Proof.
  intros Hcfg T Hb1 Hb2 Htk Hlo Hhi Hmax Hm Hw e. cbv zeta.
  apply Forall_app in Htk. destruct Htk as [Htk1 Htk2]. rewrite elapsed_app in Hhi |- *. rewrite app_length in Hmax.
  pose proof (elapsed_nonneg _ Htk1) as En1. pose proof (elapsed_nonneg _ Htk2) as En2.
  destruct (step (sys0 t0 off) (OStart c)) as [x0 ob0] eqn:E0.
  pose proof (wnow_start c t0 off x0 ob0 E0) as W0.
  pose proof (start_rel_ts c t0 off) as R0. rewrite E0 in R0. cbn [fst] in R0. fold e in R0.
  assert (Y : years_ok e t0 (t0 + elapsed ops1 + elapsed ops2)) by (unfold years_ok, e; lia).
  cbn [run]. rewrite E0. rewrite !run_app.
  pose proof (run_rel_ts c crit e t0 _ Hcfg T Y ops1 x0 None 0 R0 Hb1 Htk1 ltac:(lia) ltac:(cbn [Nat.add]; lia)) as [R1 W1].
  pose proof (run_length ops1 x0) as L1.
  pose proof (a_run_none_wrote ops1 (snd (run x0 ops1)) L1) as Hw'. rewrite Hw in Hw'.
  pose proof (a_run_flat ops1 None (snd (run x0 ops1)) Hb1 L1) as Fl1. cbn [flat app] in Fl1.
  destruct (run x0 ops1) as [x1 obs1]. cbn [fst snd Nat.add] in *.
  destruct Hw' as [[cl cu] Ea]. rewrite Ea in *. cbn [flat] in Fl1.
  destruct R1 as [Ht1 [Ha1 [keys [wr [roll [ts [Es [I [V Hn]]]]]]]]].
  pose proof (stop_tsx_core c crit e t0 [] x1 keys wr roll ts cl Hcfg Es Ha1 (tsinv_x _ _ _ _ _ _ _ _ I)) as S1.
  apply tsx_view_nil in S1. rewrite V in S1.
  destruct (reopen_moved_step_ts c crit e t0 _ _ x1 keys wr roll ts cl cu moved Hcfg Y ltac:(lia) Ht1 Ha1 Es I V Hn Hm)
    as [x2 [E2 [R2 [W2 St2]]]].
  rewrite (run_app [OExtRename (cname c) moved; OReopen]). rewrite E2.
  destruct (tail_reltx c crit e t0 _ [(moved, cu)] keys ts _ x2 cl [] 0 ops2 Hcfg T Y (foreign_one (ts_member c) moved cu Hm) R2 Hb2 Htk2 ltac:(lia) ltac:(lia))
    as [keys' [ts' [closed2 [cur2 [D [K [KC [Rg [C _]]]]]]]]].
  destruct (run x2 (ops2 ++ [OStop])) as [x3 obs3]. cbn [fst snd] in *.
  split; [apply nth_error_after; exact L1|].
  cbn [run]. destruct (step x1 OStop) as [x1s ob1s]. cbn [fst] in *. cbn [app] in C.
  assert (Ek : exists keys2, keys' = keys ++ keys2 /\ (keys2 = [] \/ exists tl, keys2 = (ts, count ts keys) :: tl)).
  { destruct KC as [[-> _]|[tl ->]]; [exists []; rewrite app_nil_r; auto | eexists; split; [reflexivity | right; eauto]]. }
  destruct Ek as [keys2 [-> Hk2]].
  exists keys, cl, cu, ts, keys2, closed2, cur2.
  split; [exact S1|]. split; [exact Fl1|].
  split; [unfold ns_stamp; rewrite Es; reflexivity|].
  split; [pose proof (ti_ts _ _ _ _ _ _ _ _ I); lia|].
  split; [exact D|]. split; [exact K|]. split; [intros k Ik; specialize (Rg k Ik); lia|]. split; [exact C|].
  split; [|exact Hk2].
  rewrite ReopenRot.written_app, !concat_app. cbn [concat]. rewrite !app_nil_r, <- Fl1, <- C, <- !app_assoc. reflexivity.
Qed.
Print Assumptions reopen_timestamps.

Lemma nth_error_mid {A} (pre : list A) a rest n : length pre = n -> nth_error (pre ++ a :: rest) n = Some a.
Proof. intros <-. rewrite nth_error_app2 by lia. rewrite Nat.sub_diag. reflexivity. Qed.

(* ------------------------------------------------------------------ reopen with rCURRENT in place *)
(* the current file is continued (not truncated), the keys of the closed files are extended *)
Theorem reopen_timestamps_in_place c crit t0 off ops1 ops2 :
  tscfg c crit -> tag_ok c -> Forall basic_op ops1 -> Forall basic_op ops2 -> Forall tick_ok (ops1 ++ ops2) ->
  (0 <= t0 + ts_e c off)%Z -> (t0 + elapsed (ops1 ++ ops2) + ts_e c off < sec_max)%Z ->
  (N.of_nat (length (ops1 ++ ops2)) <= usize_max)%N -> wrote ops1 = true ->
  let e := ts_e c off in
  let r := run (sys0 t0 off) (OStart c :: ops1 ++ [OReopen] ++ ops2 ++ [OStop]) in
  let f := wfs (s_w (fst r)) in
  nth_error (snd r) (S (length ops1)) = Some (ObsRes 0 false)
  /\ exists keys1 closed1 cur1 keys2 closed2 cur2,
       ts_view c e (wfs (s_w (fst (run (sys0 t0 off) (OStart c :: ops1 ++ [OStop]))))) keys1 closed1 cur1
       /\ concat closed1 ++ cur1 = written ops1
       /\ ts_view c e f (keys1 ++ keys2) (closed1 ++ closed2) cur2
       /\ keys_ok (keys1 ++ keys2)
       /\ (forall k, In k (keys1 ++ keys2) -> (t0 <= fst k <= t0 + elapsed (ops1 ++ ops2))%Z)
       /\ concat (closed1 ++ closed2) ++ cur2 = written (ops1 ++ ops2)
       /\ (exists t, closed2 ++ [cur2] = (cur1 ++ t) :: List.tl (closed2 ++ [cur2])).
Proof.
  intros Hcfg T Hb1 Hb2 Htk Hlo Hhi Hmax Hw e. cbv zeta.
  apply Forall_app in Htk. destruct Htk as [Htk1 Htk2]. rewrite elapsed_app in Hhi |- *. rewrite app_length in Hmax.
  pose proof (elapsed_nonneg _ Htk1) as En1. pose proof (elapsed_nonneg _ Htk2) as En2.
  destruct (step (sys0 t0 off) (OStart c)) as [x0 ob0] eqn:E0.
  pose proof (wnow_start c t0 off x0 ob0 E0) as W0.
  pose proof (start_rel_ts c t0 off) as R0. rewrite E0 in R0. cbn [fst] in R0. fold e in R0.
  assert (Y : years_ok e t0 (t0 + elapsed ops1 + elapsed ops2)) by (unfold years_ok, e; lia).
  cbn [run]. rewrite E0. rewrite !run_app.
  pose proof (run_rel_ts c crit e t0 _ Hcfg T Y ops1 x0 None 0 R0 Hb1 Htk1 ltac:(lia) ltac:(cbn [Nat.add]; lia)) as [R1 W1].
  pose proof (run_length ops1 x0) as L1.
  pose proof (a_run_none_wrote ops1 (snd (run x0 ops1)) L1) as Hw'. rewrite Hw in Hw'.
  pose proof (a_run_flat ops1 None (snd (run x0 ops1)) Hb1 L1) as Fl1. cbn [flat app] in Fl1.
  destruct (run x0 ops1) as [x1 obs1]. cbn [fst snd Nat.add] in *.
  destruct Hw' as [[cl cu] Ea]. rewrite Ea in *. cbn [flat] in Fl1.
  destruct R1 as [Ht1 [Ha1 [keys [wr [roll [ts [Es [I [V Hn]]]]]]]]].
  pose proof (stop_tsx_core c crit e t0 [] x1 keys wr roll ts cl Hcfg Es Ha1 (tsinv_x _ _ _ _ _ _ _ _ I)) as S1.
  apply tsx_view_nil in S1. rewrite V in S1.
  destruct (reopen_inplace_step_ts c crit e t0 _ x1 keys wr roll ts cl cu Hcfg Ht1 Ha1 Es I V Hn) as [x2 [E2 [R2 W2]]].
  assert (E2' : run x1 [OReopen] = (x2, [ObsRes 0 false])) by (cbn [run]; rewrite E2; reflexivity).
  rewrite (run_app [OReopen]), E2'.
  destruct (tail_reltx c crit e t0 _ [] keys ts _ x2 cl cu 0 ops2 Hcfg T Y (foreign_none (ts_member c)) R2 Hb2 Htk2 ltac:(lia) ltac:(lia))
    as [keys' [ts' [closed2 [cur2 [D [K [KC [Rg [C Hext]]]]]]]]].
  destruct (run x2 (ops2 ++ [OStop])) as [x3 obs3]. cbn [fst snd] in *.
  split; [apply nth_error_mid; exact L1|].
  cbn [run]. destruct (step x1 OStop) as [x1s ob1s]. cbn [fst] in *.
  assert (Ek : exists keys2, keys' = keys ++ keys2).
  { destruct KC as [[-> _]|[tl ->]]; [exists []; rewrite app_nil_r; reflexivity | eexists; reflexivity]. }
  destruct Ek as [keys2 ->]. apply tsx_view_nil in D.
  exists keys, cl, cu, keys2, closed2, cur2.
  split; [exact S1|]. split; [exact Fl1|]. split; [exact D|]. split; [exact K|].
  split; [intros k Ik; specialize (Rg k Ik); lia|]. split; [|exact Hext].
  rewrite ReopenRot.written_app, concat_app, <- Fl1, <- !app_assoc. f_equal. exact C.
Qed.
Print Assumptions reopen_timestamps_in_place.

(* ================================================================== examples (non-vacuity) and findings *)
Require FL.Flw.ReopenFacts.
Import String.StringSyntax.
Open Scope string_scope.

Definition ett_cfg (base : String.string) (cap : option nat) (app : bool) : config :=
  {| c_spec := {| fbase := bs base; fdisc := None; fts := false; fsfx := Some (bs "log") |};
     c_append := app; c_cap := cap; c_rot := Some (CSize 3, NTimestamps, KNever); c_utc := false;
     c_symlink := false; c_bg := false; c_async := false; c_start := None |}.
Definition ett_a := ett_cfg "a" (Some 8) false.   (* a_rCURRENT.log, a_r<ts>[.restart-NNNN].log; limit 3 bytes, BufWriter of 8 bytes *)
(* the histories of ReopenRot.v: ex_ops1 = "abcd" | "ef" flush "gh" (in the buffer);  ex_ops2 = "ij" "kl" tick 5 "mnop" snap "q" *)

Example ett_hyps :
  tscfg ett_a (CSize 3) /\ tag_ok ett_a /\ Forall basic_op ex_ops1 /\ Forall basic_op ex_ops2
  /\ Forall tick_ok (ex_ops1 ++ ex_ops2)
  /\ (0 <= 0 + ts_e ett_a 0)%Z /\ (0 + elapsed (ex_ops1 ++ ex_ops2) + ts_e ett_a 0 < sec_max)%Z
  /\ (N.of_nat (length (ex_ops1 ++ ex_ops2)) <= usize_max)%N
  /\ ts_member ett_a ex_moved = false /\ wrote ex_ops1 = true.
Proof.
  split; [repeat split|]. split; [apply tag_free_ok; split; vm_compute; reflexivity|].
  split; [repeat constructor|]. split; [repeat constructor|].
  split; [repeat (apply Forall_cons; [cbn [tick_ok]; first [exact Logic.I | lia]|]); apply Forall_nil|].
  split; [vm_compute; discriminate|]. split; [vm_compute; reflexivity|]. split; [vm_compute; discriminate|].
  split; vm_compute; reflexivity.
Qed.

(* at the rename "efgh" is partly on disk, partly in the buffer; reopen succeeds; a.old gets the buffered tail; the new
   rCURRENT (over the inherited size count at once) is closed EMPTY under the time stamp 00-00-00 of the moved file's start
   with the restart counter 0000; no name is used twice *)
Example ett_reopen_computed :
  ex_dir (OStart ett_a :: ex_ops1)
  = [(bs "a_r1970-01-01_00-00-00.log", bs "abcd"); (bs "a_rCURRENT.log", bs "ef")]
  /\ ex_dir (OStart ett_a :: ex_ops1 ++ [OExtRename (cname ett_a) ex_moved; OReopen])
  = [(bs "a.old", bs "efgh"); (bs "a_r1970-01-01_00-00-00.log", bs "abcd"); (bs "a_rCURRENT.log", [])]
  /\ ex_dir (OStart ett_a :: ex_ops1 ++ [OExtRename (cname ett_a) ex_moved; OReopen] ++ ex_ops2 ++ [OStop])
  = [(bs "a.old", bs "efgh"); (bs "a_r1970-01-01_00-00-00.log", bs "abcd"); (bs "a_r1970-01-01_00-00-00.restart-0000.log", []);
     (bs "a_r1970-01-01_00-00-00.restart-0001.log", bs "ijkl"); (bs "a_r1970-01-01_00-00-05.log", bs "mnop");
     (bs "a_rCURRENT.log", bs "q")]
  /\ nth_error (snd (run (sys0 0 0) (OStart ett_a :: ex_ops1 ++ [OExtRename (cname ett_a) ex_moved; OReopen] ++ ex_ops2 ++ [OStop])))
               (S (S (length ex_ops1))) = Some (ObsRes 0 false).
Proof. repeat (split; [vm_compute; reflexivity|]); vm_compute; reflexivity. Qed.

(* FINDING (ext_reopen_stamp): rename at second 7, reopen at second 9 - the rCURRENT created at second 9 is closed at second 12
   as ..._00-00-00.restart-0000: under the time stamp 0 of the MOVED file's start (the naming state survives the reopen), with
   the counter the moved file would have got.  The file name claims a start 9 seconds before the file existed. *)
Example ext_reopen_stamp :
  ex_dir (OStart ett_a :: ex_ops1 ++ [OTick 7; OExtRename (cname ett_a) ex_moved; OTick 2; OReopen; OTick 3] ++ ex_ops2 ++ [OStop])
  = [(bs "a.old", bs "efgh"); (bs "a_r1970-01-01_00-00-00.log", bs "abcd"); (bs "a_r1970-01-01_00-00-00.restart-0000.log", []);
     (bs "a_r1970-01-01_00-00-12.log", bs "ijkl"); (bs "a_r1970-01-01_00-00-17.log", bs "mnop"); (bs "a_rCURRENT.log", bs "q")]
  /\ ns_stamp (ReopenFacts.end_of (OStart ett_a :: ex_ops1 ++ [OTick 7; OExtRename (cname ett_a) ex_moved; OTick 2; OReopen])) = Some 0%Z
  /\ wnow (s_w (ReopenFacts.end_of (OStart ett_a :: ex_ops1 ++ [OTick 7; OExtRename (cname ett_a) ex_moved; OTick 2; OReopen]))) = 9%Z.
Proof. repeat (split; [vm_compute; reflexivity|]); vm_compute; reflexivity. Qed.

(* the NAMES of the family are those of the history without the rename (there "efgh" is in ...restart-0000) *)
Example ext_reopen_same_keys :
  List.map fst (ex_dir (OStart ett_a :: (ex_ops1 ++ [OTick 7]) ++ ex_ops2 ++ [OStop]))
  = List.tl (List.map fst (ex_dir (OStart ett_a :: (ex_ops1 ++ [OTick 7]) ++ [OExtRename (cname ett_a) ex_moved; OReopen] ++ ex_ops2 ++ [OStop]))).
Proof. vm_compute. reflexivity. Qed.

(* the size count is not reset by the reopen: the new rCURRENT stays empty (as with the other namings) *)
Example ext_reopen_empty_file :
  ReopenFacts.assoc (bs "a_r1970-01-01_00-00-00.restart-0000.log")
    (ex_dir (OStart ett_a :: ex_ops1 ++ [OExtRename (cname ett_a) ex_moved; OReopen] ++ ex_ops2 ++ [OStop])) = Some [].
Proof. vm_compute. reflexivity. Qed.

(* ... what reopen_timestamps says about the history *)
Example ett_reopen_thm :
  exists keys1 closed1 cur1 keys2 closed2 cur2,
    ts_view ett_a 0 (wfs (s_w (fst (run (sys0 0 0) (OStart ett_a :: ex_ops1 ++ [OStop]))))) keys1 closed1 cur1
    /\ tsx_view ett_a 0 (wfs (s_w (fst (run (sys0 0 0) (OStart ett_a :: ex_ops1 ++ [OExtRename (cname ett_a) ex_moved; OReopen] ++ ex_ops2 ++ [OStop])))))
         (keys1 ++ keys2) (closed1 ++ closed2) cur2 [(ex_moved, cur1)]
    /\ keys_ok (keys1 ++ keys2)
    /\ concat closed2 ++ cur2 = written ex_ops2
    /\ (keys2 = [] \/ exists tl, keys2 = (0%Z, count 0%Z keys1) :: tl).
Proof.
  destruct ett_hyps as (Hc & T & H1 & H2 & Htk & Hlo & Hhi & Hmax & Hm & Hw).
  pose proof (reopen_timestamps ett_a (CSize 3) 0 0 ex_ops1 ex_ops2 ex_moved Hc T H1 H2 Htk Hlo Hhi Hmax Hm Hw) as [_ X].
  destruct X as (keys1 & closed1 & cur1 & ts1 & keys2 & closed2 & cur2 & V1 & _ & St & _ & D & K & _ & C & _ & F).
  assert (Ets : ts1 = 0%Z) by (vm_compute in St; injection St as <-; reflexivity). subst ts1.
  exists keys1, closed1, cur1, keys2, closed2, cur2. auto.
Qed.

(* FINDING: the hypothesis ts_member c moved = false.  A member name is never overwritten, but a name with a LATER time stamp
   (second 5) misplaces the records in the reader's order: abcd | "" | ijkl | efgh | mnop | q *)
Example ext_reopen_family_name_misplaces :
  ts_member ett_a (kname ett_a 0 (5%Z, 0)) = true
  /\ ex_dir (OStart ett_a :: ex_ops1 ++ [OExtRename (cname ett_a) (kname ett_a 0 (5%Z, 0)); OReopen] ++ ex_ops2 ++ [OStop])
  = [(bs "a_r1970-01-01_00-00-00.log", bs "abcd"); (bs "a_r1970-01-01_00-00-00.restart-0000.log", []);
     (bs "a_r1970-01-01_00-00-00.restart-0001.log", bs "ijkl"); (bs "a_r1970-01-01_00-00-05.log", bs "efgh");
     (bs "a_r1970-01-01_00-00-05.restart-0000.log", bs "mnop"); (bs "a_rCURRENT.log", bs "q")].
Proof. split; vm_compute; reflexivity. Qed.

(* ---- reopen_timestamps_in_place on a history: the directory is the one of the history without the reopen ---- *)
Example ett_in_place_computed :
  ex_dir (OStart ett_a :: ex_ops1 ++ [OReopen] ++ ex_ops2 ++ [OStop])
  = [(bs "a_r1970-01-01_00-00-00.log", bs "abcd"); (bs "a_r1970-01-01_00-00-00.restart-0000.log", bs "efgh");
     (bs "a_r1970-01-01_00-00-00.restart-0001.log", bs "ijkl"); (bs "a_r1970-01-01_00-00-05.log", bs "mnop");
     (bs "a_rCURRENT.log", bs "q")]
  /\ ex_dir (OStart ett_a :: ex_ops1 ++ ex_ops2 ++ [OStop]) = ex_dir (OStart ett_a :: ex_ops1 ++ [OReopen] ++ ex_ops2 ++ [OStop])
  /\ nth_error (snd (run (sys0 0 0) (OStart ett_a :: ex_ops1 ++ [OReopen] ++ ex_ops2 ++ [OStop]))) (S (length ex_ops1))
     = Some (ObsRes 0 false).
Proof. repeat (split; [vm_compute; reflexivity|]); vm_compute; reflexivity. Qed.

Example ett_in_place_thm :
  exists keys closed cur,
    ts_view ett_a 0 (wfs (s_w (fst (run (sys0 0 0) (OStart ett_a :: ex_ops1 ++ [OReopen] ++ ex_ops2 ++ [OStop]))))) keys closed cur
    /\ keys_ok keys /\ concat closed ++ cur = written (ex_ops1 ++ ex_ops2).
Proof.
  destruct ett_hyps as (Hc & T & H1 & H2 & Htk & Hlo & Hhi & Hmax & _ & Hw).
  pose proof (reopen_timestamps_in_place ett_a (CSize 3) 0 0 ex_ops1 ex_ops2 Hc T H1 H2 Htk Hlo Hhi Hmax Hw) as [_ X].
  destruct X as (keys1 & closed1 & cur1 & keys2 & closed2 & cur2 & _ & _ & V & K & _ & C & _).
  exists (keys1 ++ keys2), (closed1 ++ closed2), cur2. split; [exact V|]. split; [exact K | exact C].
Qed.
