(* Numbered layouts (NumInv.layout: Numbers and NumbersDirect): every history of writes, flushes, triggers and clock
   ticks refines the abstract reader's view (closed files, current content).  s_run is the run that the size rule
   predicts. *)
Require Import FL.Base.Bytes FL.Fs.Fs FL.Names.FileSpec FL.Flw.Model FL.Flw.ModelFacts FL.Flw.NumInv FL.Flw.Run
  FL.Time.Period.
Require Export FL.Flw.RunFacts.
Open Scope nat_scope.

Definition aview := option (list bytes * bytes).

Definition basic_op (o : op) : Prop :=
  match o with OWrite _ | OPlain _ | OFlush | OTrigger | OTick _ | OSnap => True | _ => False end.

Definition rot_of (ob : obs) : bool := match ob with ObsRes _ r => r | _ => false end.

Definition a_step (a : aview) (o : op) (rot : bool) : aview :=
  match o with
  | OWrite b | OPlain b =>
    let '(cl, cu) := match a with Some v => v | None => ([], []) end in
    Some (if rot then (cl ++ [cu], b) else (cl, cu ++ b))
  | OTrigger => match a with Some (cl, cu) => Some (cl ++ [cu], []) | None => None end
  | _ => a
  end.

Definition Rel (c : config) (crit : criterion) (x : sys) (a : aview) : Prop :=
  s_tl x = [] /\ wacts (s_w x) = 0 /\
  match a with
  | None => s_flw x = Some (new_flw c) /\ quiet (s_w x) /\ names (wfs (s_w x)) = [] /\ inodes (wfs (s_w x)) = []
  | Some (closed, cur) =>
    exists wr roll, s_flw x = Some (st_of c (length closed) roll wr) /\ NumInv c (s_w x) wr closed
      /\ cur_view (s_w x) wr = cur /\ roll_size_ok roll (length cur)
      /\ (forall m, crit = CSize m -> exists k, roll = RSize m k)
  end.

Lemma write_buffer_init c w b o wr p w' :
  initialize c w = (Ok (Active o wr p), w') ->
  write_buffer (new_flw c) w b = write_buffer {| f_cfg := c; f_inner := Active o wr p; f_poisoned := false |} w' b.
Proof.
  intros H. unfold write_buffer, new_flw. cbn [f_cfg f_inner]. rewrite H. reflexivity.
Qed.

Lemma sys_eta x s : s_flw x = Some s -> {| s_flw := Some s; s_w := s_w x; s_tl := s_tl x; s_dead := s_dead x |} = x.
Proof. destruct x as [fl w tl dd]. cbn. intros ->. reflexivity. Qed.

Lemma run_inv (I : sys -> Prop) (ok : op -> Prop) (Q : obs -> Prop) :
  (forall x o, I x -> ok o -> I (fst (step x o)) /\ Q (snd (step x o))) ->
  forall ops x, I x -> Forall ok ops -> I (fst (run x ops)) /\ Forall Q (snd (run x ops)).
Proof.
  intros H. induction ops as [|o r IH]; intros x Ix Hb; [split; [exact Ix | constructor]|].
  inversion Hb as [|o' r' Ho Hr]; subst. cbn [run]. destruct (H x o Ix Ho) as [I1 Q1].
  destruct (step x o) as [x1 ob]. cbn [fst snd] in *. destruct (IH x1 I1 Hr) as [I2 Q2].
  destruct (run x1 r) as [x2 obs]. cbn [fst snd] in *. split; [exact I2 | constructor; assumption].
Qed.

Lemma ltb_zero m : (m <? 0)%N = false.
Proof. apply N.ltb_ge. lia. Qed.

Lemma roll_of_not_due w crit : rotation_necessary w (roll_of crit 0 (wnow w)) = false.
Proof.
  assert (A : forall a, age_rotation_necessary w a (wnow w) = false).
  { intros a. unfold age_rotation_necessary, local_civil. rewrite same_period_spec, Z.eqb_refl. reflexivity. }
  destruct crit; cbn [roll_of rotation_necessary]; unfold size_rotation_necessary; rewrite ?A, ?ltb_zero; reflexivity.
Qed.

Definition v_step (p : list bytes * bytes) (o : op) (rot : bool) : list bytes * bytes :=
  match o with
  | OWrite b | OPlain b => if rot then (fst p ++ [snd p], b) else (fst p, snd p ++ b)
  | OTrigger => (fst p ++ [snd p], [])
  | _ => p
  end.

Lemma a_step_active p o rot : a_step (Some p) o rot = Some (v_step p o rot).
Proof. destruct p as [cl cu]. destruct o; reflexivity. Qed.

Definition replaced (o : op) (rot : bool) : bool :=
  match o with OTrigger => true | OWrite _ | OPlain _ => rot | _ => false end.

Definition basic_obs (w : world) (o : op) (rot : bool) : obs :=
  match o with OSnap => snapshot w | OWrite _ | OPlain _ => ObsRes 0 rot | _ => ObsRes 0 false end.

(* the abstract run: driven by the observed rotation flags *)
Fixpoint a_run (a : aview) (ops : list op) (obs : list obs) : aview :=
  match ops, obs with
  | o :: r, ob :: robs => a_run (a_step a o (rot_of ob)) r robs
  | _, _ => a
  end.

Definition cur_of (a : aview) : bytes := match a with Some (_, cu) => cu | None => [] end.
Fixpoint s_run (m : N) (a : aview) (ops : list op) : aview :=
  match ops with
  | [] => a
  | o :: r => s_run m (a_step a o (m <? N.of_nat (length (cur_of a)))%N) r
  end.

Section Active.
Variables (cfgp : config -> criterion -> Prop) (ns : nat -> naming_state) (cur : config -> nat -> bytes)
          (Inv : config -> world -> writer -> list bytes -> Prop).

(* g: by how much the size count is ahead of the current file *)
Definition Act (c : config) (x : sys) (p : list bytes * bytes) (g : nat) (roll : roll_state) : Prop :=
  s_tl x = [] /\ wacts (s_w x) = 0 /\
  exists wr, s_flw x = Some (lay_st ns cur c (length (fst p)) roll wr) /\ Inv c (s_w x) wr (fst p)
    /\ cur_view (s_w x) wr = snd p /\ roll_size_ok roll (g + length (snd p)).

Lemma write_act (L : write_layout cfgp ns cur Inv) c crit x p g roll b :
  cfgp c crit -> Act c x p g roll ->
  exists s w' s' roll', s_flw x = Some s /\ f_poisoned s = false
    /\ write_buffer s (s_w x) b = (Ok tt, w', s', rotation_necessary (s_w x) roll)
    /\ Act c {| s_flw := Some s'; s_w := w'; s_tl := []; s_dead := s_dead x |}
           (v_step p (OWrite b) (rotation_necessary (s_w x) roll)) (if rotation_necessary (s_w x) roll then 0 else g) roll'
    /\ roll_kept crit (rotation_necessary (s_w x) roll) (wnow (s_w x)) roll roll' /\ same_env (s_w x) w'.
Proof.
  intros Hcfg [Ht [Ha [wr [Es [I [V Z]]]]]]. destruct p as [cl cu]. cbn [fst snd] in *. rewrite <- V in Z.
  destruct (active_write _ _ _ _ L c crit (s_w x) wr cl roll g b Hcfg I Z) as [w' [wr' [roll' [cl' [E [I' [Z' [S' [V' K]]]]]]]]].
  exists (lay_st ns cur c (length cl) roll wr), w', (lay_st ns cur c (length cl') roll' wr'), roll'.
  split; [exact Es|]. split; [reflexivity|]. split; [exact E|]. split; [|split; [exact K | exact S']].
  split; [reflexivity|]. split; [exact (same_env_acts _ _ S' Ha)|]. exists wr'. cbn [s_flw s_w v_step fst snd].
  rewrite V in V'.
  destruct (rotation_necessary (s_w x) roll); injection V' as -> V''; cbn [fst snd];
    (split; [reflexivity|]; split; [exact I'|]; split; [exact V''|]; rewrite <- V''; exact Z').
Qed.

Hypothesis L : active_layout cfgp ns cur Inv.

Lemma act_sync c crit x p g roll o : cfgp c crit -> Act c x p g roll -> step x o = sync_step x o.
Proof.
  intros Hcfg [_ [_ [wr [Es _]]]]. destruct (lo_sync _ _ _ _ L c crit Hcfg) as [Hts Has]. exact (step_sync_cfg x o _ Es Hts Has).
Qed.

Lemma step_act c crit x p g roll o :
  cfgp c crit -> Act c x p g roll -> basic_op o ->
  let rot := rotation_necessary (s_w x) roll in
  exists roll', Act c (fst (step x o)) (v_step p o rot) (if replaced o rot then 0 else g) roll'
    /\ roll_kept crit (replaced o rot) (wnow (s_w x)) roll roll'
    /\ snd (step x o) = basic_obs (s_w x) o rot
    /\ woff (s_w (fst (step x o))) = woff (s_w x)
    /\ wnow (s_w (fst (step x o))) = match o with OTick dt => (wnow (s_w x) + dt)%Z | _ => wnow (s_w x) end.
Proof.
  intros Hcfg A Hb rot. rewrite (act_sync c crit x p g roll o Hcfg A).
  destruct o; try contradiction; cbn [sync_step v_step replaced basic_obs].
  - (* OWrite *)
    destruct (write_act L c crit x p g roll b Hcfg A) as [s [w' [s' [roll' [Es [Hp [E [A' [K S']]]]]]]]].
    rewrite Es, Hp. rewrite (proj1 A). cbn [app]. rewrite E. cbn [fst snd s_w].
    exists roll'. split; [exact A'|]. split; [exact K|]. split; [reflexivity|]. split; apply S'.
  - (* OPlain *)
    destruct (write_act L c crit x p g roll b Hcfg A) as [s [w' [s' [roll' [Es [Hp [E [A' [K S']]]]]]]]].
    rewrite Es, Hp, E. cbn [code_of fst snd s_w]. rewrite (proj1 A).
    exists roll'. split; [exact A'|]. split; [exact K|]. split; [reflexivity|]. split; apply S'.
  - (* OFlush *)
    destruct A as [Ht [Ha [wr [Es [I [V Z]]]]]]. rewrite Es. cbn [lay_st f_poisoned].
    destruct (active_flush _ _ _ _ L c (s_w x) wr (fst p) roll I) as [w' [wr' [E [I' [V' [P' S']]]]]].
    fold (lay_st ns cur c (length (fst p)) roll wr). rewrite E. cbn [fst snd s_w].
    exists roll. split; [|split; [apply roll_kept_refl | split; [reflexivity | split; apply S']]].
    split; [exact Ht|]. split; [exact (same_env_acts _ _ S' Ha)|]. exists wr'. cbn [s_flw s_w].
    split; [reflexivity|]. split; [exact I'|]. split; [congruence | exact Z].
  - (* OTrigger *)
    destruct A as [Ht [Ha [wr [Es [I [V Z]]]]]]. rewrite Es. cbn [lay_st f_poisoned f_cfg f_inner].
    destruct (lo_rotate _ _ _ _ L c crit (s_w x) wr (fst p) roll true Hcfg I eq_refl) as [w' [wr' [roll' [E [I' [V' [Z' [S' K]]]]]]]].
    rewrite E. cbn [code_of with_inner f_cfg f_poisoned fst snd s_w].
    exists roll'. split; [|split; [exact K | split; [reflexivity | split; apply S']]].
    split; [exact Ht|]. split; [exact (same_env_acts _ _ S' Ha)|]. exists wr'. cbn [s_flw s_w fst snd]. rewrite V in *.
    split; [reflexivity|]. split; [exact I'|]. split; [exact V' | exact Z'].
  - (* OTick *)
    destruct A as [Ht [Ha [wr [Es [I [V Z]]]]]]. cbn [fst snd s_w set_now woff wnow].
    exists roll. split; [|split; [apply roll_kept_refl | split; [reflexivity | split; reflexivity]]].
    split; [exact Ht|]. split; [exact Ha|]. exists wr. cbn [s_flw s_w].
    split; [exact Es|]. split; [|split; [exact V | exact Z]].
    apply (lo_env _ _ _ _ L c (s_w x)); [exact I | reflexivity | exact (lo_quiet _ _ _ _ L _ _ _ _ I)].
  - (* OSnap *)
    cbn [fst snd]. exists roll. split; [exact A|]. split; [apply roll_kept_refl|]. split; [reflexivity|]. split; reflexivity.
Qed.

Lemma size_decision c x p g roll m :
  Act c x p g roll -> (exists k, roll = RSize m k) ->
  rotation_necessary (s_w x) roll = (m <? N.of_nat (g + length (snd p)))%N.
Proof. intros [_ [_ [wr [_ [_ [_ Z]]]]]] [k ->]. cbn in Z. subst k. reflexivity. Qed.

Lemma stop_act c crit x p g roll : cfgp c crit -> Act c x p g roll ->
  exists wr', Inv c (s_w (fst (step x OStop))) wr' (fst p) /\ cur_view (s_w (fst (step x OStop))) wr' = snd p /\ wpend wr' = [].
Proof.
  intros Hcfg A. rewrite (act_sync c crit x p g roll OStop Hcfg A). destruct A as [Ht [Ha [wr [Es [I [V Z]]]]]].
  cbn [sync_step]. rewrite Es. cbn [lay_st f_poisoned fst s_w].
  destruct (active_drop _ _ _ _ L c (s_w x) wr (fst p) roll I Ha) as [wr' [I' [V' [P' _]]]].
  exists wr'. split; [exact I'|]. split; [congruence | exact P'].
Qed.
End Active.

Section Layout.
Variables (cfgp : config -> criterion -> Prop) (ns : nat -> naming_state) (cur : config -> nat -> bytes)
          (Inv : config -> world -> writer -> list bytes -> Prop).
Hypothesis L : layout cfgp ns cur Inv.

Definition Fresh (c : config) (x : sys) : Prop :=
  s_tl x = [] /\ wacts (s_w x) = 0 /\
  s_flw x = Some (new_flw c) /\ quiet (s_w x) /\ names (wfs (s_w x)) = [] /\ inodes (wfs (s_w x)) = [].

Lemma write_fresh (W : write_layout cfgp ns cur Inv) (S0 : empty_start cfgp ns cur Inv) c crit x b :
  cfgp c crit -> Fresh c x ->
  exists w' s' roll', write_buffer (new_flw c) (s_w x) b = (Ok tt, w', s', false)
    /\ Act ns cur Inv c {| s_flw := Some s'; s_w := w'; s_tl := []; s_dead := s_dead x |} ([], b) 0 roll'
    /\ roll_ok crit (wnow (s_w x)) roll' /\ same_env (s_w x) w'.
Proof.
  intros Hcfg [Ht [Ha [Es [Q [Hn Hi]]]]].
  destruct (S0 c crit (s_w x) Hcfg Q Hn Hi) as [w1 [wr [Ei [I [V S1]]]]].
  set (roll := roll_of crit 0 (wnow (s_w x))) in *.
  assert (Z0 : roll_size_ok roll (length (cur_view w1 wr))) by (rewrite V; exact (roll_of_size crit 0 _)).
  destruct (active_write _ _ _ _ W c crit w1 wr [] roll 0 b Hcfg I Z0) as [w' [wr' [roll' [cl' [E [I' [Z' [S' [V' K]]]]]]]]].
  assert (D : rotation_necessary w1 roll = false).
  { pose proof S1 as [_ [En _]]. unfold roll. rewrite <- En. apply roll_of_not_due. }
  rewrite D in *. rewrite V in V'. cbn [app] in V'. injection V' as -> V''.
  exists w', (lay_st ns cur c 0 roll' wr'), roll'.
  split. { rewrite (write_buffer_init c (s_w x) b _ _ _ w1 Ei). exact E. }
  split; [|split; [exact (proj2 K _ (roll_of_ok crit 0%N _)) | exact (same_env_trans _ _ _ S1 S')]].
  split; [reflexivity|]. split; [exact (same_env_acts _ _ (same_env_trans _ _ _ S1 S') Ha)|]. exists wr'. cbn [s_flw s_w fst snd length].
  split; [reflexivity|]. split; [exact I'|]. split; [exact V''|]. rewrite <- V''. exact Z'.
Qed.

Lemma fresh_sync c crit x o : cfgp c crit -> Fresh c x -> step x o = sync_step x o.
Proof.
  intros Hcfg [_ [_ [Es _]]]. destruct (lo_sync _ _ _ _ L c crit Hcfg) as [Hts Has]. exact (step_sync_cfg x o _ Es Hts Has).
Qed.

Lemma step_fresh c crit x o :
  cfgp c crit -> Fresh c x -> basic_op o ->
  match o with
  | OWrite b | OPlain b => exists roll', Act ns cur Inv c (fst (step x o)) ([], b) 0 roll' /\ roll_ok crit (wnow (s_w x)) roll'
  | _ => Fresh c (fst (step x o))
  end
  /\ snd (step x o) = basic_obs (s_w x) o false
  /\ woff (s_w (fst (step x o))) = woff (s_w x)
  /\ wnow (s_w (fst (step x o))) = match o with OTick dt => (wnow (s_w x) + dt)%Z | _ => wnow (s_w x) end.
Proof.
  intros Hcfg F Hb. rewrite (fresh_sync c crit x o Hcfg F). pose proof F as [Ht [Ha [Es [Q [Hn Hi]]]]].
  destruct o; try contradiction; cbn [sync_step basic_obs].
  - (* OWrite *)
    destruct (write_fresh L (lo_init _ _ _ _ L) c crit x b Hcfg F) as [w' [s' [roll' [E [A' [K S']]]]]].
    rewrite Es. cbn [new_flw f_poisoned]. fold (new_flw c). rewrite Ht. cbn [app]. rewrite E. cbn [fst snd s_w].
    split; [exists roll'; split; [exact A' | exact K]|]. split; [reflexivity|]. split; apply S'.
  - (* OPlain *)
    destruct (write_fresh L (lo_init _ _ _ _ L) c crit x b Hcfg F) as [w' [s' [roll' [E [A' [K S']]]]]].
    rewrite Es. cbn [new_flw f_poisoned]. fold (new_flw c). rewrite E. cbn [code_of fst snd s_w]. rewrite Ht.
    split; [exists roll'; split; [exact A' | exact K]|]. split; [reflexivity|]. split; apply S'.
  - (* OFlush *)
    rewrite Es. cbn [new_flw f_poisoned flush_state f_inner fst snd s_w].
    split; [|split; [reflexivity | split; reflexivity]].
    split; [exact Ht|]. split; [exact Ha|]. split; [reflexivity|]. split; [exact Q|]. split; assumption.
  - (* OTrigger *)
    rewrite Es. cbn [new_flw f_poisoned f_cfg f_inner mount_next with_inner code_of fst snd s_w].
    split; [|split; [reflexivity | split; reflexivity]].
    split; [exact Ht|]. split; [exact Ha|]. split; [reflexivity|]. split; [exact Q|]. split; assumption.
  - (* OTick *)
    cbn [fst snd s_w set_now woff wnow]. split; [|split; [reflexivity | split; reflexivity]].
    split; [exact Ht|]. split; [exact Ha|]. split; [exact Es|]. split; [exact Q|]. split; assumption.
  - (* OSnap *)
    cbn [fst snd]. split; [exact F|]. split; [reflexivity|]. split; reflexivity.
Qed.

Definition LRel (c : config) (crit : criterion) (x : sys) (a : aview) : Prop :=
  s_tl x = [] /\ wacts (s_w x) = 0 /\
  match a with
  | None => s_flw x = Some (new_flw c) /\ quiet (s_w x) /\ names (wfs (s_w x)) = [] /\ inodes (wfs (s_w x)) = []
  | Some (closed, cu) =>
    exists wr roll, s_flw x = Some (lay_st ns cur c (length closed) roll wr) /\ Inv c (s_w x) wr closed
      /\ cur_view (s_w x) wr = cu /\ roll_size_ok roll (length cu)
      /\ (forall m, crit = CSize m -> exists k, roll = RSize m k)
  end.

Lemma lrel_act c crit x p : LRel c crit x (Some p) <->
  exists roll, Act ns cur Inv c x p 0 roll /\ (forall m, crit = CSize m -> exists k, roll = RSize m k).
Proof.
  destruct p as [cl cu]. split.
  - intros [Ht [Ha [wr [roll [Es [I [V [Z RS]]]]]]]]. exists roll. split; [|exact RS].
    split; [exact Ht|]. split; [exact Ha|]. exists wr. auto.
  - intros [roll [[Ht [Ha [wr [Es [I [V Z]]]]]] RS]]. split; [exact Ht|]. split; [exact Ha|]. exists wr, roll. auto.
Qed.

Lemma lrel_sync c crit x a o : cfgp c crit -> LRel c crit x a -> step x o = sync_step x o.
Proof.
  intros Hcfg R. destruct a as [p|].
  - apply lrel_act in R. destruct R as [roll [A _]]. exact (act_sync _ _ _ _ L c crit x p 0 roll o Hcfg A).
  - exact (fresh_sync c crit x o Hcfg R).
Qed.

(* what a write does, from either kind of state *)
Lemma lwrite_rel (W : write_layout cfgp ns cur Inv) (S0 : empty_start cfgp ns cur Inv) c crit x a b :
  cfgp c crit -> LRel c crit x a ->
  exists s w' s' rot, s_flw x = Some s /\ f_poisoned s = false /\
    write_buffer s (s_w x) b = (Ok tt, w', s', rot)
    /\ LRel c crit {| s_flw := Some s'; s_w := w'; s_tl := []; s_dead := s_dead x |} (a_step a (OWrite b) rot)
    /\ (forall m, crit = CSize m ->
          rot = (m <? N.of_nat (length (match a with Some (_, cu) => cu | None => [] end)))%N).
Proof.
  intros Hcfg R. destruct a as [p|].
  - apply lrel_act in R. destruct R as [roll [A RS]].
    destruct (write_act _ _ _ _ W c crit x p 0 roll b Hcfg A) as [s [w' [s' [roll' [Es [Hp [E [A' [K _]]]]]]]]].
    rewrite ghost_none in A'.
    exists s, w', s', (rotation_necessary (s_w x) roll).
    split; [exact Es|]. split; [exact Hp|]. split; [exact E|]. split.
    + rewrite a_step_active. apply lrel_act. exists roll'. split; [exact A' | exact (roll_kept_size _ _ _ _ _ K RS)].
    + intros m Hm. destruct p as [cl cu]. exact (size_decision ns cur Inv c x (cl, cu) 0 roll m A (RS m Hm)).
  - destruct (write_fresh W S0 c crit x b Hcfg R) as [w' [s' [roll' [E [A' [K _]]]]]].
    exists (new_flw c), w', s', false.
    split; [apply R|]. split; [reflexivity|]. split; [exact E|]. split.
    + change (a_step None (OWrite b) false) with (Some (@nil bytes, [] ++ b)). apply lrel_act.
      exists roll'. split; [exact A' | intros m Hm; exact (roll_ok_size _ _ _ _ K Hm)].
    + intros m _. cbn [length]. rewrite ltb_zero. reflexivity.
Qed.

Lemma fresh_fs c x x' : Fresh c x' -> Fresh c x -> wfs (s_w x') = wfs (s_w x).
Proof.
  intros [_ [_ [_ [_ [N' I']]]]] [_ [_ [_ [_ [N0 I0]]]]].
  destruct (wfs (s_w x')), (wfs (s_w x)). cbn in *. congruence.
Qed.

Lemma lstep_rel c crit x a o :
  cfgp c crit -> LRel c crit x a -> basic_op o ->
  let '(x', ob) := step x o in
  LRel c crit x' (a_step a o (rot_of ob))
  /\ (forall b m, (o = OWrite b \/ o = OPlain b) -> crit = CSize m ->
        ob = ObsRes 0 (m <? N.of_nat (length (match a with Some (_, cu) => cu | None => [] end)))%N)
  /\ (wfs (s_w x') = wfs (s_w x) \/ exists v, a_step a o (rot_of ob) = Some v).
Proof.
  intros Hcfg R Hb. destruct a as [p|].
  - apply lrel_act in R. destruct R as [roll [A RS]].
    destruct (step_act _ _ _ _ L c crit x p 0 roll o Hcfg A Hb) as [roll' [A' [K [Eo _]]]]. rewrite ghost_none in A'.
    destruct (step x o) as [x' ob]. cbn [fst snd] in *. subst ob.
    assert (Er : a_step (Some p) o (rot_of (basic_obs (s_w x) o (rotation_necessary (s_w x) roll)))
                 = Some (v_step p o (rotation_necessary (s_w x) roll))).
    { rewrite a_step_active. destruct o; reflexivity. }
    rewrite Er. split; [|split; [|right; eauto]].
    + apply lrel_act. exists roll'. split; [exact A' | exact (roll_kept_size _ _ _ _ _ K RS)].
    + intros b m Ho Hm. destruct p as [cl cu]. pose proof (size_decision ns cur Inv c x (cl, cu) 0 roll m A (RS m Hm)) as D.
      cbn [snd Nat.add] in D. rewrite <- D. destruct Ho as [->| ->]; reflexivity.
  - destruct (step_fresh c crit x o Hcfg R Hb) as [F' [Eo _]].
    destruct (step x o) as [x' ob]. cbn [fst snd] in *. subst ob.
    destruct o; try contradiction; cbn [basic_obs rot_of a_step].
    + destruct F' as [roll' [A' K]]. split; [|split; [intros; cbn [length]; rewrite ltb_zero; reflexivity | right; eauto]].
      apply (lrel_act c crit x' ([], [] ++ b)). exists roll'. split; [exact A' | intros m Hm; exact (roll_ok_size _ _ _ _ K Hm)].
    + destruct F' as [roll' [A' K]]. split; [|split; [intros; cbn [length]; rewrite ltb_zero; reflexivity | right; eauto]].
      apply (lrel_act c crit x' ([], [] ++ b)). exists roll'. split; [exact A' | intros m Hm; exact (roll_ok_size _ _ _ _ K Hm)].
    + split; [exact F'|]. split; [intros b m [H|H]; discriminate | left; exact (fresh_fs c _ _ F' R)].
    + split; [exact F'|]. split; [intros b m [H|H]; discriminate | left; exact (fresh_fs c _ _ F' R)].
    + split; [exact F'|]. split; [intros b m [H|H]; discriminate | left; exact (fresh_fs c _ _ F' R)].
    + split; [exact F'|]. split; [intros b m [H|H]; discriminate | left; exact (fresh_fs c _ _ F' R)].
Qed.

Lemma lstep_obs c crit x a o : cfgp c crit -> LRel c crit x a -> basic_op o ->
  exists rot, snd (step x o) = basic_obs (s_w x) o rot.
Proof.
  intros Hcfg R Hb. destruct a as [p|].
  - apply lrel_act in R. destruct R as [roll [A _]].
    destruct (step_act _ _ _ _ L c crit x p 0 roll o Hcfg A Hb) as [roll' [_ [_ [Eo _]]]]. eauto.
  - destruct (step_fresh c crit x o Hcfg R Hb) as [_ [Eo _]]. eauto.
Qed.

Lemma lstop_obs c crit x a : cfgp c crit -> LRel c crit x a -> snd (step x OStop) = ObsRes 0 false.
Proof.
  intros Hcfg R. rewrite (lrel_sync c crit x a OStop Hcfg R). cbn [sync_step]. destruct R as [_ [_ R]].
  destruct a as [[cl cu]|]; [destruct R as [wr [roll [Es _]]] | destruct R as [Es _]]; rewrite Es; reflexivity.
Qed.

Lemma lstop_rel c crit x a : cfgp c crit -> LRel c crit x a ->
  match a with
  | None => names (wfs (s_w (fst (step x OStop)))) = []
  | Some (closed, cu) =>
    exists wr, Inv c (s_w (fst (step x OStop))) wr closed /\ cur_view (s_w (fst (step x OStop))) wr = cu /\ wpend wr = []
  end.
Proof.
  intros Hcfg R. destruct a as [[closed cu]|].
  - apply lrel_act in R. destruct R as [roll [A _]]. exact (stop_act _ _ _ _ L c crit x (closed, cu) 0 roll Hcfg A).
  - rewrite (fresh_sync c crit x OStop Hcfg R). destruct R as [_ [_ [Es [_ [Hn _]]]]]. cbn [sync_step]. rewrite Es. exact Hn.
Qed.

Lemma lrun_rel c crit : cfgp c crit -> forall ops x a, LRel c crit x a -> Forall basic_op ops ->
  LRel c crit (fst (run x ops)) (a_run a ops (snd (run x ops))).
Proof.
  intros Hcfg. induction ops as [|o r IH]; intros x a R Hb; [exact R|].
  cbn [run]. inversion Hb as [|o' r' Ho Hr]; subst.
  pose proof (lstep_rel c crit x a o Hcfg R Ho) as S. destruct (step x o) as [x1 ob].
  destruct S as [R1 _]. specialize (IH x1 _ R1 Hr). destruct (run x1 r) as [x2 obs]. exact IH.
Qed.

Lemma lrun_size c m : cfgp c (CSize m) -> forall ops x a, LRel c (CSize m) x a -> Forall basic_op ops ->
  a_run a ops (snd (run x ops)) = s_run m a ops
  /\ (forall i o, nth_error ops i = Some o -> forall b, (o = OWrite b \/ o = OPlain b) ->
        nth_error (snd (run x ops)) i = Some (ObsRes 0 (m <? N.of_nat (length (cur_of (s_run m a (firstn i ops)))))%N)).
Proof.
  intros Hcfg. induction ops as [|o r IH]; intros x a R Hb.
  - split; [reflexivity|]. intros i o H. destruct i; discriminate.
  - cbn [run]. inversion Hb as [|o' r' Ho Hr]; subst.
    pose proof (lstep_rel c (CSize m) x a o Hcfg R Ho) as S. destruct (step x o) as [x1 ob] eqn:Est.
    destruct S as [R1 [C1 _]]. specialize (IH x1 _ R1 Hr). destruct (run x1 r) as [x2 obs] eqn:Er. cbn [snd] in *.
    assert (Erot : a_step a o (rot_of ob) = a_step a o (m <? N.of_nat (length (cur_of a)))%N).
    { destruct o; try reflexivity.
      - rewrite (C1 b m (or_introl eq_refl) eq_refl). reflexivity.
      - rewrite (C1 b m (or_intror eq_refl) eq_refl). reflexivity. }
    cbn [a_run s_run]. rewrite <- Erot. destruct IH as [IH1 IH2]. split; [exact IH1|].
    intros i o0 Hi b Hw. destruct i as [|i].
    + cbn in Hi. injection Hi as <-. cbn [nth_error firstn s_run]. f_equal. apply (C1 b m Hw eq_refl).
    + cbn [nth_error firstn s_run] in *. rewrite <- Erot. apply (IH2 i o0 Hi b Hw).
Qed.
End Layout.

Lemma step_sync_rel c crit x a o : numcfg c crit -> Rel c crit x a -> step x o = sync_step x o.
Proof. exact (lrel_sync _ _ _ _ num_layout c crit x a o). Qed.

Lemma step_rel c crit x a o :
  numcfg c crit -> Rel c crit x a -> basic_op o ->
  let '(x', ob) := step x o in
  Rel c crit x' (a_step a o (rot_of ob))
  /\ (forall b m, (o = OWrite b \/ o = OPlain b) -> crit = CSize m ->
        ob = ObsRes 0 (m <? N.of_nat (length (match a with Some (_, cu) => cu | None => [] end)))%N)
  /\ (wfs (s_w x') = wfs (s_w x) \/ exists v, a_step a o (rot_of ob) = Some v).
Proof. exact (lstep_rel _ _ _ _ num_layout c crit x a o). Qed.

Lemma run_rel c crit : numcfg c crit -> forall ops x a, Rel c crit x a -> Forall basic_op ops ->
  Rel c crit (fst (run x ops)) (a_run a ops (snd (run x ops))).
Proof. exact (lrun_rel _ _ _ _ num_layout c crit). Qed.

(* ---- stop: what the reader finds ---- *)
Definition reader_view (c : config) (f : fs) (closed : list bytes) (cur : bytes) : Prop :=
  (forall i, i < length closed ->
     exists j, lookup f (rname c i) = Some j /\ plain (inode f j) /\ content f j = nth i closed [])
  /\ (exists j, lookup f (cname c) = Some j /\ plain (inode f j) /\ content f j = cur)
  /\ (forall n j, lookup f n = Some j -> n = cname c \/ exists i, i < length closed /\ n = rname c i).

Lemma numinv_reader_view c w wr cl : NumInv c w wr cl -> wpend wr = [] -> reader_view c (wfs w) cl (cur_view w wr).
Proof.
  intros [Q W Hc Hcp Hcl Hon Hwr Hcap] P. split; [exact Hcl|]. split; [|exact Hon].
  exists (wino wr). split; [exact Hc|]. split; [exact Hcp|]. unfold cur_view. rewrite P, app_nil_r. reflexivity.
Qed.

Lemma stop_rel c crit x a : numcfg c crit -> Rel c crit x a ->
  let '(x', _) := step x OStop in
  match a with
  | None => names (wfs (s_w x')) = []
  | Some (closed, cur) => reader_view c (wfs (s_w x')) closed cur
  end.
Proof.
  intros Hcfg R. pose proof (lstop_rel _ _ _ _ num_layout c crit x a Hcfg R) as S.
  destruct (step x OStop) as [x' ob]. cbn [fst] in S. destruct a as [[closed cur]|]; [|exact S].
  destruct S as [wr [I [V P]]]. rewrite <- V. exact (numinv_reader_view _ _ _ _ I P).
Qed.

(* ---- the abstract view only ever appends what was written ---- *)
Fixpoint written (ops : list op) : bytes :=
  match ops with
  | [] => []
  | (OWrite b | OPlain b) :: r => b ++ written r
  | _ :: r => written r
  end.
Definition flat (a : aview) : bytes := match a with Some (cl, cu) => concat cl ++ cu | None => [] end.

Lemma a_step_flat a o rot : basic_op o -> flat (a_step a o rot) = flat a ++ written [o].
Proof.
  destruct o; try contradiction; intros _; cbn [a_step written]; rewrite ?app_nil_r; try reflexivity.
  - destruct a as [[cl cu]|]; destruct rot; cbn [flat]; rewrite ?concat_app; cbn [concat app]; rewrite ?app_nil_r, ?app_assoc; reflexivity.
  - destruct a as [[cl cu]|]; destruct rot; cbn [flat]; rewrite ?concat_app; cbn [concat app]; rewrite ?app_nil_r, ?app_assoc; reflexivity.
  - destruct a as [[cl cu]|]; cbn [flat]; rewrite ?concat_app; cbn [concat app]; rewrite ?app_nil_r; reflexivity.
Qed.

Lemma written_cons o r : written (o :: r) = written [o] ++ written r.
Proof. destruct o; cbn [written]; rewrite ?app_nil_r; reflexivity. Qed.

Lemma a_run_flat ops : forall a obs, Forall basic_op ops -> length obs = length ops ->
  flat (a_run a ops obs) = flat a ++ written ops.
Proof.
  induction ops as [|o r IH]; intros a obs Hb Hl; [cbn; rewrite app_nil_r; reflexivity|].
  destruct obs as [|ob robs]; [discriminate|]. inversion Hb as [|o' r' Ho Hr]; subst.
  cbn [a_run]. rewrite IH by (auto; cbn in Hl; lia). rewrite a_step_flat by assumption.
  rewrite (written_cons o r), app_assoc. reflexivity.
Qed.

Lemma a_step_rot_irrelevant a o r1 r2 : (forall b, o <> OWrite b /\ o <> OPlain b) -> a_step a o r1 = a_step a o r2.
Proof. intros H. destruct o; try reflexivity; destruct (H b); congruence. Qed.

(* ---- the size rule ---- *)
Lemma run_size c m : numcfg c (CSize m) -> forall ops x a, Rel c (CSize m) x a -> Forall basic_op ops ->
  a_run a ops (snd (run x ops)) = s_run m a ops
  /\ (forall i o, nth_error ops i = Some o -> forall b, (o = OWrite b \/ o = OPlain b) ->
        nth_error (snd (run x ops)) i = Some (ObsRes 0 (m <? N.of_nat (length (cur_of (s_run m a (firstn i ops)))))%N)).
Proof. exact (lrun_size _ _ _ _ num_layout c m). Qed.
