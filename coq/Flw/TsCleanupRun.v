(* Timestamps naming (rCURRENT + closed files named by keys) with a cleanup strategy: the invariant TsKInv, one cleanup, one
   rotation (mount_next with cleanup), every history of basic operations with a clock that does not go backwards, and the
   end-to-end theorem timestamps_cleanup_stream:  after the writer is stopped the directory holds exactly rCURRENT, the newest
   n closed files as plain files, the next m closed files as archives with the same content, nothing else ((n, m) = klim k).
   A closed file is named by the second in which it was STARTED (as rCURRENT) and its position within that second; `keys`
   lists the keys of ALL closed files, also of those that have been removed.
   A strategy with n + m = 0 (KLog 0, KGz 0, KLogGz 0 0) removes every closed file at once; then THE NAMES ARE USED AGAIN: the
   next file closed in the same second gets the very same name, without restart counter (TsCleanup.names_reused).  The run
   invariant KI therefore tracks the keys only when the strategy keeps at least one closed file (keepsb); otherwise the
   directory holds rCURRENT only, and the theorem - which claims no name then - is met by any keys. *)
Require Import FL.Base.Bytes FL.Fs.Fs FL.Time.TsFormat FL.Names.FileSpec FL.Flw.Model FL.Flw.ModelFacts FL.Flw.NumFs
  FL.Flw.NumInv FL.Flw.Run FL.Flw.NumRun FL.Flw.CleanupFacts FL.Flw.NumKillRestart FL.Flw.NumCleanupNames
  FL.Flw.NumCleanupStep FL.Flw.NumCleanupRun FL.Flw.QuietFacts FL.Flw.GenCleanupRun FL.Flw.TsTime FL.Flw.TsNames FL.Flw.TsInv
  FL.Flw.TsRun FL.Flw.TsTheorems FL.Flw.GenCleanup FL.Flw.TsCleanupNames.
From Coq Require Import Lia.
Open Scope nat_scope.

(* ------------------------------------------------------------------ configurations *)
Definition tskcfg (c : config) (crit : criterion) (k : cleanup) : Prop :=
  c_rot c = Some (crit, NTimestamps, k) /\ fts (c_spec c) = false /\ c_symlink c = false /\ c_async c = false
  /\ c_bg c = false.

Lemma k_mid_le k L : k_mid k L <= L.
Proof. unfold k_mid. destruct (klim k) as [[n m]|]; lia. Qed.

(* ------------------------------------------------------------------ the invariant *)
Record TsKInv (c : config) (e lo0 : Z) (w : world) (wr : writer) (keys : list key) (closed : list bytes) (ts : Z) (lo mid : nat) : Prop := {
  sk_quiet : quiet w;
  sk_wf : fs_wf (wfs w);
  sk_off : eoff c w = e;
  sk_cur : lookup (wfs w) (cname c) = Some (wino wr);
  sk_curplain : plain (inode (wfs w) (wino wr));
  sk_len : length keys = length closed;
  sk_dir : gdir (tname c e keys) (cname c) (wfs w) closed lo mid;
  sk_keys : keys_ok keys;
  sk_range : forall k, In k keys -> (lo0 <= fst k <= ts)%Z;
  sk_ts : (lo0 <= ts <= wnow w)%Z;
  sk_wr : wr_ok wr;
  sk_cap : wcap wr = c_cap c }.

Definition st_tsk (c : config) (k : cleanup) (ts : Z) (roll : roll_state) (wr : writer) : flw :=
  {| f_cfg := c; f_inner := Active (Some (mk_rsk k (NSTs ts (Some cur_infix) std_fmt) roll)) wr (cname c); f_poisoned := false |}.

Lemma sk_years c e lo0 hi w wr keys closed ts lo mid :
  years_ok e lo0 hi -> (wnow w <= hi)%Z -> TsKInv c e lo0 w wr keys closed ts lo mid -> forall k, In k keys -> in_years e (fst k).
Proof.
  intros Y Hhi I k Ik. apply (years_in e lo0 hi); [exact Y|]. pose proof (sk_range _ _ _ _ _ _ _ _ _ _ I k Ik).
  pose proof (sk_ts _ _ _ _ _ _ _ _ _ _ I). lia.
Qed.

(* ---- the cleanup keeps the invariant and moves the limits; rCURRENT is not touched ---- *)
Lemma cleanup_sk c crit k e lo0 hi w wr keys closed ts lo mid :
  tskcfg c crit k -> sfx_ok (c_spec c) -> years_ok e lo0 hi -> (wnow w <= hi)%Z -> TsKInv c e lo0 w wr keys closed ts lo mid ->
  exists w', cleanup_impl c w k (IFTs std_fmt) None = (Ok tt, w') /\ same_env w w'
    /\ TsKInv c e lo0 w' wr keys closed ts (knew_lo k lo (length closed)) (knew_mid k mid (length closed))
    /\ cur_view w' wr = cur_view w wr.
Proof.
  intros (Hrot & Hts & Hlink & Has & Hbg) Hsfx Y Hhi I. pose proof I as [Q W Hoff Hc Hcp Hlen KD Hko Hrg Htsr Hwr Hcap].
  pose proof (sk_years _ _ _ _ _ _ _ _ _ _ _ Y Hhi I) as Yk.
  unfold knew_lo, knew_mid in *. destruct (klim k) as [[n m]|] eqn:Ek.
  - pose proof (gnames_ts c e keys Hsfx Hko Yk) as GN. rewrite Hlen in GN.
    rewrite (cleanup_impl_unfold c w k (IFTs std_fmt) n m Ek Q), (fixed_of_fixed0 c w Hts).
    rewrite (list_log_gz_ts c e (woff w) (wfs w) keys closed lo mid Hsfx Hko Yk Hlen KD).
    destruct (gcleanup (tname c e keys) (cname c) w n m closed lo mid GN Q W KD) as (w' & E & S & W' & KD' & SC & _).
    unfold cleanup_body in E. rewrite E. clear E.
    destruct (same_at_content _ _ _ _ SC Hc) as [Lc' Ic'].
    exists w'. split; [reflexivity|]. split; [exact S|]. split.
    + constructor; auto.
      * apply S.
      * unfold eoff in *. destruct S as [_ [_ [-> _]]]. exact Hoff.
      * rewrite Ic'. exact Hcp.
      * destruct S as [_ [-> _]]. exact Htsr.
    + unfold cur_view, content. rewrite Ic'. reflexivity.
  - apply klim_none in Ek. subst k. exists w. split; [reflexivity|]. split; [apply same_env_refl; exact Q|]. split; [exact I | reflexivity].
Qed.

(* ---- one rotation ---- *)
Lemma mount_next_rotates_sk c crit k e lo0 hi w wr keys closed ts roll force :
  tskcfg c crit k -> sfx_ok (c_spec c) -> (0 < count ts keys -> k_lo k (length closed) < length closed) -> tag_ok c -> years_ok e lo0 hi ->
  TsKInv c e lo0 w wr keys closed ts (k_lo k (length closed)) (k_mid k (length closed)) ->
  (wnow w <= hi)%Z -> (N.of_nat (length closed) <= usize_max)%N ->
  force || rotation_necessary w roll = true ->
  exists w' wr',
    mount_next c w (Active (Some (mk_rsk k (NSTs ts (Some cur_infix) std_fmt) roll)) wr (cname c)) force
      = (Ok tt, w', Active (Some (mk_rsk k (NSTs (wnow w) (Some cur_infix) std_fmt) (roll_reset roll (wnow w)))) wr' (cname c))
    /\ TsKInv c e lo0 w' wr' (keys ++ [(ts, count ts keys)]) (closed ++ [cur_view w wr]) (wnow w)
               (k_lo k (S (length closed))) (k_mid k (S (length closed)))
    /\ cur_view w' wr' = [] /\ same_env w w'.
Proof.
  intros Hcfg Hsfx K1 T Y I Hhi Hmax Hnec. pose proof Hcfg as (Hrot & Hts & Hlink & Has & Hbg).
  pose proof I as [Q W Hoff Hc Hcp Hlen KD Hko Hrg Htsr Hwr Hcap].
  pose proof (sk_years _ _ _ _ _ _ _ _ _ _ _ Y Hhi I) as Yk.
  assert (Yts : in_years e ts) by (apply (years_in e lo0 hi); [exact Y | lia]).
  assert (Hle : forall k0, In k0 keys -> (fst k0 <= ts)%Z) by (intros k0 Ik; specialize (Hrg k0 Ik); lia).
  set (L := length closed) in *.
  set (knew := (ts, count ts keys)).
  (* the directory after rename + create + flush *)
  destruct (gdir_snoc_key c e keys ts _ _ _ _ Hsfx Hko Yk Hle Yts (eq_sym Hlen) KD) as (Hko' & Yk' & GN & Enew & KD1).
  fold knew in Hko', Yk', GN, Enew, KD1. set (keys' := keys ++ [knew]) in *. rewrite Hlen in GN, Enew. fold L in GN, Enew.
  destruct (gdir_rotate_r (tname c e keys') (cname c) (wfs w) closed _ _ (wino wr) (wpend wr) (wnow w) GN W KD1 Hc Hcp)
    as (Ht & f1 & Er & L1c & R).
  fold L in Ht, Er, R. rewrite Enew in Ht, Er. cbn zeta in R. destruct R as (W3 & L3c & Inew & KD3).
  pose proof (p_rename_quiet w (cname c) (kname c e knew) Q) as PR. rewrite Er in PR. destruct PR as [w1 [Epr [F1 S1]]].
  assert (Ecn : forall w0, name_of c w0 (Some cur_infix) = cname c) by (intros w0; apply name_of_fixed; exact Hts).
  (* the naming step: the answer of collision_free is the next position of the second in which rCURRENT was started;
     rCURRENT is renamed; the new current file does not exist yet, so the clock is read for its creation time *)
  assert (NS : next_infix c w (NSTs ts (Some cur_infix) std_fmt) cur_infix w1 (NSTs (wnow w) (Some cur_infix) std_fmt)).
  { exists (wnow w). split; [|split; reflexivity]. unfold creation_ts_of_current. rewrite Ecn.
    rewrite (collision_free_tsk c e w keys closed _ _ ts (count ts keys) Q Hts Hoff T Hsfx Yts Yk Hlen KD).
    - rewrite (name_of_fixed c w) by assumption.
      change (as_name (c_spec c) (fixed0 c) (Some (infix_of e (ts, count ts keys)))) with (kname c e knew). rewrite Epr.
      unfold birth_or_now. rewrite file_of_missing by (rewrite F1; exact L1c). rewrite (same_env_now _ _ S1). reflexivity.
    - exact (keys_count keys Hko ts).
    - pose proof (count_le_length ts keys). lia.
    - intros Hpos. destruct (last_key_newest' keys ts (count ts keys) Hko Hle (keys_count keys Hko ts) Hpos) as [Hp0 El].
      rewrite Hlen in Hp0, El. fold L in Hp0, El. exists (L - 1). split; [|exact El].
      pose proof (K1 Hpos). lia. }
  pose proof (mount_next_fresh c w (mk_rsk k (NSTs ts (Some cur_infix) std_fmt) roll) wr (cname c) force
                _ w1 _ Hnec NS (proj1 S1) Hlink) as M.
  rewrite Ecn, F1, (same_env_now _ _ S1) in M. specialize (M L1c). cbv zeta in M. unfold flushed, cleanup_or_queue in M.
  rewrite set_fs_set_fs in M. cbn [mk_rsk rs_roll rs_cleanup rs_bg ns_filter ns_writes_direct wfs set_fs] in M. rewrite M. clear M.
  set (f3 := append_ino (fst (create_file f1 (cname c) 0%N (wnow w))) (wino wr) (wpend wr)) in *.
  set (new := snd (create_file f1 (cname c) 0%N (wnow w))) in *.
  set (wr' := {| wino := length (inodes f1); wpend := []; wcap := c_cap c |}).
  assert (SE : same_env w (set_fs w1 f3)) by (eapply same_env_trans; [exact S1 | apply same_env_set_fs; apply S1]).
  assert (Elen : length (closed ++ [cur_view w wr]) = S L) by apply glen_snoc.
  assert (I3 : TsKInv c e lo0 (set_fs w1 f3) wr' keys' (closed ++ [cur_view w wr]) (wnow w) (k_lo k L) (k_mid k L)).
  { constructor; cbn [wfs set_fs].
    - apply SE.
    - exact W3.
    - unfold eoff in *. destruct SE as [_ [_ [-> _]]]. exact Hoff.
    - exact L3c.
    - change (wino wr') with new. rewrite Inew. split; reflexivity.
    - unfold keys'. rewrite !glen_snoc, Hlen. reflexivity.
    - exact KD3.
    - exact Hko'.
    - intros k0 Ik. apply in_app_or in Ik. destruct Ik as [Ik|[<-|[]]].
      + specialize (Hrg k0 Ik). lia.
      + unfold knew. cbn [fst]. lia.
    - rewrite (same_env_now _ _ SE). lia.
    - apply wr_ok_nil.
    - reflexivity. }
  assert (Hhi3 : (wnow (set_fs w1 f3) <= hi)%Z) by (rewrite (same_env_now _ _ SE); exact Hhi).
  destruct (cleanup_sk c crit k e lo0 hi (set_fs w1 f3) wr' _ _ _ _ _ Hcfg Hsfx Y Hhi3 I3) as (w4 & Ecl & S4 & I4 & V4).
  rewrite Ecl. rewrite Elen, knew_lo_step, knew_mid_step in I4.
  rewrite (reset_fresh (set_fs w1 f3) roll _ new (wnow w) L3c Inew).
  exists w4, wr'. split; [reflexivity|]. split; [exact I4|].
  split; [rewrite V4; exact (cur_view_fresh (set_fs w1 f3) new _ _ Inew)|].
  eapply same_env_trans; eassumption.
Qed.

(* ---- appending to the current inode keeps the invariant ---- *)
Lemma tskinv_append c e lo0 hi w w' wr wr' keys closed ts lo mid x :
  sfx_ok (c_spec c) -> years_ok e lo0 hi -> (wnow w <= hi)%Z ->
  TsKInv c e lo0 w wr keys closed ts lo mid -> wfs w' = append_ino (wfs w) (wino wr) x -> same_env w w' ->
  wino wr' = wino wr -> wcap wr' = wcap wr -> wr_ok wr' ->
  TsKInv c e lo0 w' wr' keys closed ts lo mid /\ content (wfs w') (wino wr') = content (wfs w) (wino wr) ++ x.
Proof.
  intros Hsfx Y Hhi I F SE Ei Ec Hok. pose proof (sk_years _ _ _ _ _ _ _ _ _ _ _ Y Hhi I) as Yk.
  destruct I as [Q W Hoff Hc Hcp Hlen KD Hko Hrg Htsr Hwr Hcap].
  pose proof (wf_bound _ W _ _ Hc) as Hold.
  assert (GN : gnames (tname c e keys) (cname c) (length closed)) by (rewrite <- Hlen; apply gnames_ts; assumption).
  split.
  - constructor.
    + exact (proj1 SE).
    + rewrite F. apply wf_append. exact W.
    + unfold eoff in *. destruct SE as [_ [_ [-> _]]]. exact Hoff.
    + rewrite F, lookup_append, Ei. exact Hc.
    + rewrite F, Ei, inode_append, Nat.eqb_refl by assumption. exact Hcp.
    + exact Hlen.
    + rewrite F. apply gdir_append_r; assumption.
    + exact Hko.
    + exact Hrg.
    + destruct SE as [_ [-> _]]. exact Htsr.
    + exact Hok.
    + congruence.
  - rewrite F, Ei, content_append, Nat.eqb_refl by assumption. reflexivity.
Qed.

(* ------------------------------------------------------------------ the invariant of the run *)
(* A strategy that keeps at least one closed file (or none at all: KNever): the keys of all closed files are tracked.
   A strategy with both limits 0 (KLog 0, KGz 0, KLogGz 0 0) removes every closed file at once; then nothing is tracked: the
   directory holds rCURRENT only, and the name that a closed file gets for the moment before its removal is used again. *)
Definition keepsb (k : cleanup) : bool := match klim k with None => true | Some (n, m) => 0 <? n + m end.

Definition KI (c : config) (k : cleanup) (e lo0 : Z) (w : world) (wr : writer) (closed : list bytes) (ts : Z) : Prop :=
  exists keys tcl, TsKInv c e lo0 w wr keys tcl ts (k_lo k (length tcl)) (k_mid k (length tcl))
    /\ (if keepsb k then tcl = closed else keys = [] /\ tcl = []).

Lemma ki_quiet c k e lo0 w wr closed ts : KI c k e lo0 w wr closed ts -> quiet w.
Proof. intros (keys & tcl & I & _). apply I. Qed.
Lemma ki_wr c k e lo0 w wr closed ts : KI c k e lo0 w wr closed ts -> wr_ok wr.
Proof. intros (keys & tcl & I & _). apply I. Qed.

Lemma tskinv_forget c k e lo0 w wr keys tcl ts : keepsb k = false ->
  TsKInv c e lo0 w wr keys tcl ts (k_lo k (length tcl)) (k_mid k (length tcl)) -> TsKInv c e lo0 w wr [] [] ts 0 0.
Proof.
  intros Hk [Q W Hoff Hc Hcp Hlen KD Hko Hrg Htsr Hwr Hcap].
  assert (E : k_lo k (length tcl) = length tcl /\ k_mid k (length tcl) = length tcl).
  { unfold keepsb, k_lo, k_mid in *. destruct (klim k) as [[n m]|]; [|discriminate]. apply Nat.ltb_ge in Hk. split; lia. }
  destruct E as [E1 E2]. rewrite E1, E2 in KD. destruct KD as [Hle Hnd Hp Ha Hon].
  constructor; auto.
  - constructor.
    + cbn [length]. lia.
    + exact Hnd.
    + cbn [length]. intros i Hi. lia.
    + intros i Hi. lia.
    + intros n j Lj. destruct (Hon n j Lj) as [->|[(i & Hi & _)|(i & Hi & _)]]; [left; reflexivity | lia | lia].
  - constructor.
  - intros k0 [].
Qed.

(* ---- one rotation ---- *)
Lemma mount_next_rotates_ki c crit k e lo0 hi w wr closed ts roll force :
  tskcfg c crit k -> sfx_ok (c_spec c) -> tag_ok c -> years_ok e lo0 hi -> KI c k e lo0 w wr closed ts ->
  (wnow w <= hi)%Z -> (N.of_nat (length closed) <= usize_max)%N ->
  force || rotation_necessary w roll = true ->
  exists w' wr',
    mount_next c w (Active (Some (mk_rsk k (NSTs ts (Some cur_infix) std_fmt) roll)) wr (cname c)) force
      = (Ok tt, w', Active (Some (mk_rsk k (NSTs (wnow w) (Some cur_infix) std_fmt) (roll_reset roll (wnow w)))) wr' (cname c))
    /\ KI c k e lo0 w' wr' (closed ++ [cur_view w wr]) (wnow w)
    /\ cur_view w' wr' = [] /\ same_env w w'.
Proof.
  intros Hcfg Hsfx T Y (keys & tcl & I & Lk) Hhi Hmax Hnec. destruct (keepsb k) eqn:Ek.
  - subst tcl.
    assert (K1 : 0 < count ts keys -> k_lo k (length closed) < length closed).
    { intros Hpos. pose proof (count_le_length ts keys) as Hc. rewrite (sk_len _ _ _ _ _ _ _ _ _ _ I) in Hc.
      unfold keepsb, k_lo in *. destruct (klim k) as [[n m]|]; [apply Nat.ltb_lt in Ek|]; lia. }
    destruct (mount_next_rotates_sk c crit k e lo0 hi w wr keys closed ts roll force Hcfg Hsfx K1 T Y I Hhi Hmax Hnec)
      as (w' & wr' & E & I' & R).
    exists w', wr'. split; [exact E|]. split; [|exact R].
    exists (keys ++ [(ts, count ts keys)]), (closed ++ [cur_view w wr]). rewrite glen_snoc, Ek. split; [exact I' | reflexivity].
  - destruct Lk as [-> ->].
    assert (K1 : 0 < count ts [] -> k_lo k (length (@nil bytes)) < length (@nil bytes)) by (cbn; lia).
    destruct (mount_next_rotates_sk c crit k e lo0 hi w wr [] [] ts roll force Hcfg Hsfx K1 T Y I Hhi ltac:(cbn [length]; lia) Hnec)
      as (w' & wr' & E & I' & R).
    exists w', wr'. split; [exact E|]. split; [|exact R].
    exists [], []. rewrite Ek. split; [|split; reflexivity].
    cbn [length]. rewrite k_lo_0, k_mid_0.
    apply (tskinv_forget c k e lo0 w' wr' ([] ++ [(ts, count ts [])]) ([] ++ [cur_view w wr]) (wnow w) Ek). exact I'.
Qed.

Lemma ki_append c k e lo0 hi w w' wr wr' closed ts x :
  sfx_ok (c_spec c) -> years_ok e lo0 hi -> (wnow w <= hi)%Z ->
  KI c k e lo0 w wr closed ts -> wfs w' = append_ino (wfs w) (wino wr) x -> same_env w w' ->
  wino wr' = wino wr -> wcap wr' = wcap wr -> wr_ok wr' ->
  KI c k e lo0 w' wr' closed ts /\ content (wfs w') (wino wr') = content (wfs w) (wino wr) ++ x.
Proof.
  intros Hsfx Y Hhi (keys & tcl & I & Lk) F SE Ei Ec Hok.
  destruct (tskinv_append c e lo0 hi w w' wr wr' keys tcl ts _ _ x Hsfx Y Hhi I F SE Ei Ec Hok) as [I' C'].
  split; [exists keys, tcl; split; [exact I' | exact Lk] | exact C'].
Qed.

(* ---- the first write initialises the writer on the empty directory; the initial cleanup finds nothing ---- *)
Lemma initialize_empty_sk c crit k e lo0 hi w :
  tskcfg c crit k -> sfx_ok (c_spec c) -> years_ok e lo0 hi -> (wnow w <= hi)%Z ->
  quiet w -> names (wfs w) = [] -> inodes (wfs w) = [] -> eoff c w = e -> (lo0 <= wnow w)%Z ->
  exists w' wr roll,
    initialize c w = (Ok (Active (Some (mk_rsk k (NSTs (wnow w) (Some cur_infix) std_fmt) roll)) wr (cname c)), w')
    /\ TsKInv c e lo0 w' wr [] [] (wnow w) 0 0 /\ cur_view w' wr = [] /\ roll_size_ok roll 0 /\ same_env w w'
    /\ (forall m, crit = CSize m -> roll = RSize m 0)
    /\ roll = roll_init crit (wnow w).
Proof.
  intros Hcfg Hsfx Y Hhi Q Hn Hi Hoff Hlo. pose proof Hcfg as (Hrot & Hts & Hlink & Has & Hbg).
  assert (Ecn : name_of c w (Some cur_infix) = cname c) by (apply name_of_fixed; exact Hts).
  assert (NI : init_naming c w NTimestamps = (Ok (NSTs (wnow w) (Some cur_infix) std_fmt, cur_infix), w)).
  { unfold init_naming, creation_ts_of_current. rewrite Ecn.
    assert (Eb : birth_or_now w (cname c) = wnow w).
    { unfold birth_or_now. rewrite file_of_missing by (apply lookup_empty; exact Hn). reflexivity. }
    rewrite Eb. destruct (negb (c_append c)); [|reflexivity].
    unfold collision_free. rewrite !tick_quiet by assumption. rewrite collision_free_infix_empty by assumption.
    pose proof (p_rename_quiet w (cname c) (name_of c w (Some (infix_from_ts c w std_fmt (wnow w)))) Q) as PR.
    rewrite rename_none in PR by (apply lookup_empty; assumption). rewrite PR, Eb. reflexivity. }
  pose proof (initialize_open c w crit _ k _ _ w Hrot NI Q Hlink Hbg) as M.
  rewrite Ecn in M. specialize (M (lookup_empty _ _ Hn)). cbv zeta in M. cbn [ns_filter naming_writes_direct] in M. rewrite M. clear M.
  assert (F2 : fst (create_file (wfs w) (cname c) 0%N (wnow w)) = {| names := [(cname c, 0)]; inodes := [fresh_file (wnow w)] |})
    by (unfold create_file; cbn [fst]; rewrite Hn, Hi; reflexivity).
  rewrite F2, Hi. cbn [length].
  set (w2 := set_fs w {| names := [(cname c, 0)]; inodes := [fresh_file (wnow w)] |}).
  set (wr := {| wino := 0; wpend := []; wcap := c_cap c |}).
  destruct (gdir_only_cn (tname c e []) (cname c) (wnow w)) as (KD0 & Lc0 & W0 & I0).
  assert (I2 : TsKInv c e lo0 w2 wr [] [] (wnow w) 0 0).
  { constructor; cbn [wfs set_fs w2].
    - exact Q.
    - exact W0.
    - exact Hoff.
    - exact Lc0.
    - cbn [wr wino]. rewrite I0. split; reflexivity.
    - reflexivity.
    - exact KD0.
    - constructor.
    - intros k0 [].
    - unfold w2. cbn [wnow set_fs]. lia.
    - apply wr_ok_nil.
    - reflexivity. }
  destruct (cleanup_sk c crit k e lo0 hi w2 wr [] [] (wnow w) 0 0 Hcfg Hsfx Y Hhi I2) as (w4 & E4 & S4 & I4 & V4). rewrite E4. cbn [bind].
  assert (Z0 : knew_lo k 0 (length (@nil bytes)) = 0 /\ knew_mid k 0 (length (@nil bytes)) = 0).
  { unfold knew_lo, knew_mid. destruct (klim k) as [[n m]|]; cbn [length]; split; lia. }
  destruct Z0 as [Z1 Z2]. rewrite Z1, Z2 in I4.
  exists w4, wr, (roll_init crit (wnow w)). split; [reflexivity|]. split; [exact I4|].
  split; [rewrite V4; exact (cur_view_fresh w2 0 _ _ I0)|].
  split; [apply roll_init_size_ok|]. split; [eapply same_env_trans; [apply (same_env_set_fs w (wfs w2) Q) | exact S4]|].
  split; [intros m Hm; apply roll_init_rsize; exact Hm | reflexivity].
Qed.

(* ------------------------------------------------------------------ the run *)
(* n bounds the number of closed files (it grows by at most one with every operation) *)
Definition RelSK (c : config) (crit : criterion) (k : cleanup) (e lo0 : Z) (n : nat) (x : sys) (a : aview) : Prop :=
  s_tl x = [] /\ wacts (s_w x) = 0 /\
  match a with
  | None => s_flw x = Some (new_flw c) /\ quiet (s_w x) /\ names (wfs (s_w x)) = [] /\ inodes (wfs (s_w x)) = []
            /\ eoff c (s_w x) = e /\ (lo0 <= wnow (s_w x))%Z
  | Some (closed, cur) =>
    exists wr roll ts, s_flw x = Some (st_tsk c k ts roll wr)
      /\ KI c k e lo0 (s_w x) wr closed ts
      /\ cur_view (s_w x) wr = cur /\ length closed <= n
      /\ roll_size_ok roll (length cur) /\ (forall m, crit = CSize m -> exists z, roll = RSize m z)
  end.

Lemma ki_init c k e lo0 w wr ts : TsKInv c e lo0 w wr [] [] ts 0 0 -> KI c k e lo0 w wr [] ts.
Proof.
  intros I. exists [], []. cbn [length]. rewrite k_lo_0, k_mid_0. split; [exact I|]. destruct (keepsb k); [reflexivity | split; reflexivity].
Qed.

Lemma tskinv_tick c e lo0 w wr keys closed ts lo mid dt : TsKInv c e lo0 w wr keys closed ts lo mid -> (0 <= dt)%Z ->
  TsKInv c e lo0 (set_now w (wnow w + dt)%Z) wr keys closed ts lo mid.
Proof.
  intros [Q W Hoff Hc Hcp Hlen KD Hko Hrg Htsr Hwr Hcap] Hdt. constructor; try assumption. cbn [set_now wnow]. lia.
Qed.
Lemma ki_tick c k e lo0 w wr closed ts dt : KI c k e lo0 w wr closed ts -> (0 <= dt)%Z ->
  KI c k e lo0 (set_now w (wnow w + dt)%Z) wr closed ts.
Proof. intros (keys & tcl & I & Lk) Hdt. exists keys, tcl. split; [apply tskinv_tick; assumption | exact Lk]. Qed.

(* ------------------------------------------------------------------ the run: the four facts of GenCleanupRun.v *)
Definition sk_inv (c : config) (k : cleanup) (e lo0 : Z) (w : world) (wr : writer) (ts : Z) (closed : list bytes) : Prop :=
  KI c k e lo0 w wr closed ts.
Definition sk_nam (ts : Z) (closed : list bytes) : naming_state := NSTs ts (Some cur_infix) std_fmt.
Definition sk_fnm (c : config) (ts : Z) (closed : list bytes) : bytes := cname c.

Lemma sk_run_facts c crit k e lo0 hi : tskcfg c crit k -> sfx_ok (c_spec c) -> tag_ok c -> years_ok e lo0 hi ->
  run_facts c crit k e lo0 hi Z (sk_inv c k e lo0) sk_nam (sk_fnm c) (fun t => t) (fun t _ => t).
Proof.
  intros Hcfg Hsfx T Y. pose proof Hcfg as (Hrot & Hts & Hlink & Has & Hbg). unfold sk_inv. constructor.
  - exact Hts.
  - exact Has.
  - intros w wr ts cl I. exact (ki_quiet _ _ _ _ _ _ _ _ I).
  - intros w wr ts cl I. exact (ki_wr _ _ _ _ _ _ _ _ I).
  - intros w wr ts cl roll force I Hhi Hmax Hnec.
    exact (mount_next_rotates_ki c crit k e lo0 hi w wr cl ts roll force Hcfg Hsfx T Y I Hhi ltac:(lia) Hnec).
  - intros w w' wr wr' ts cl x I Hhi. exact (ki_append c k e lo0 hi w w' wr wr' cl ts x Hsfx Y Hhi I).
  - intros w (Q & Hn & Hi & Hoff & Hlo) Hhi.
    destruct (initialize_empty_sk c crit k e lo0 hi w Hcfg Hsfx Y Hhi Q Hn Hi Hoff Hlo) as (w' & wr & roll & E & I & V & _ & S & _ & ->).
    exists w', wr. split; [exact E|]. split; [exact (ki_init c k e lo0 w' wr _ I) | split; [exact V | exact S]].
  - intros w wr ts cl dt I Hdt. apply ki_tick; assumption.
Qed.

Lemma relsk_ix c crit k e lo0 n x a :
  RelSK c crit k e lo0 n x a <-> rel_ix c crit k e lo0 Z (sk_inv c k e lo0) sk_nam (sk_fnm c) n x a.
Proof.
  unfold RelSK, rel_ix. destruct a as [[closed cur]|]; [|reflexivity].
  split; intros (Ht & Ha & R); (split; [exact Ht|]; split; [exact Ha|]).
  - destruct R as (wr & roll & ts & R). exists ts, wr, roll. exact R.
  - destruct R as (ts & wr & roll & R). exists wr, roll, ts. exact R.
Qed.

Lemma run_rel_sk c crit k e lo0 hi : tskcfg c crit k -> sfx_ok (c_spec c) -> tag_ok c -> years_ok e lo0 hi ->
  forall ops x a n, RelSK c crit k e lo0 n x a -> Forall basic_op ops -> Forall tick_ok ops ->
  (wnow (s_w x) + elapsed ops <= hi)%Z -> (N.of_nat (n + length ops) <= usize_max)%N ->
  RelSK c crit k e lo0 (n + length ops) (fst (run x ops)) (a_run a ops (snd (run x ops)))
  /\ wnow (s_w (fst (run x ops))) = (wnow (s_w x) + elapsed ops)%Z
  /\ Forall obs_ok (snd (run x ops))
  /\ (forall m, crit = CSize m -> a_run a ops (snd (run x ops)) = s_run m a ops).
Proof.
  intros Hcfg Hsfx T Y ops x a n R Hb Htk Hhi Hmax. apply relsk_ix in R.
  destruct (run_rel_ix _ _ _ _ _ _ _ _ _ _ _ _ (sk_run_facts c crit k e lo0 hi Hcfg Hsfx T Y) ops x a n R Hb Htk Hhi Hmax) as (R' & S).
  split; [apply relsk_ix; exact R' | exact S].
Qed.

(* ------------------------------------------------------------------ stop: what is left in the directory *)
(* keys: the keys of ALL closed files (length closed of them); the files of the keys at the positions lo .. L-1 exist:
   archives below mid, plain from mid on; rCURRENT holds cur; nothing else *)
Definition tsk_view (c : config) (e : Z) (f : fs) (keys : list key) (closed : list bytes) (cur : bytes) (lo mid : nat) : Prop :=
  length keys = length closed
  /\ gdir (tname c e keys) (cname c) f closed lo mid
  /\ exists j, lookup f (cname c) = Some j /\ plain (inode f j) /\ content f j = cur.

(* keys for the case that nothing is kept: no name is claimed to exist, any sequence of keys of one second will do *)
Definition akeys (t : Z) (L : nat) : list key := map (fun i => (t, i)) (seq 0 L).
Lemma akeys_length t L : length (akeys t L) = L.
Proof. unfold akeys. rewrite map_length, seq_length. reflexivity. Qed.
Lemma akeys_fst t L k : In k (akeys t L) -> fst k = t.
Proof. unfold akeys. intros H. apply in_map_iff in H. destruct H as (i & <- & _). reflexivity. Qed.
Lemma akeys_ok t L : keys_ok (akeys t L).
Proof.
  induction L as [|L IH]; [constructor|].
  unfold akeys. rewrite seq_S, map_app. cbn [map Nat.add]. fold (akeys t L).
  replace L with (count t (akeys t L)) at 2.
  - apply ko_snoc; [exact IH|]. intros k Ik. rewrite (akeys_fst t L k Ik). lia.
  - rewrite count_all by (intros k Ik; exact (akeys_fst t L k Ik)). apply akeys_length.
Qed.

Lemma ki_view c k e lo0 w wr closed ts cur : KI c k e lo0 w wr closed ts -> content (wfs w) (wino wr) = cur ->
  exists keys, tsk_view c e (wfs w) keys closed cur (k_lo k (length closed)) (k_mid k (length closed))
               /\ keys_ok keys /\ (forall key, In key keys -> (lo0 <= fst key <= wnow w)%Z).
Proof.
  intros (keys & tcl & I & Lk) Ec. destruct I as [Q W Hoff Hc Hcp Hlen KD Hko Hrg Htsr Hwr Hcap]. destruct (keepsb k) eqn:Ek.
  - subst tcl. exists keys. split; [|split; [exact Hko | intros key Ik; specialize (Hrg key Ik); lia]].
    split; [exact Hlen|]. split; [exact KD|]. exists (wino wr). auto.
  - destruct Lk as [-> ->]. cbn [length] in KD. rewrite k_lo_0, k_mid_0 in KD. destruct KD as [Hle Hnd Hp Ha Hon].
    set (L := length closed).
    assert (E : k_lo k L = L /\ k_mid k L = L).
    { unfold keepsb, k_lo, k_mid in *. destruct (klim k) as [[n m]|]; [|discriminate]. apply Nat.ltb_ge in Ek. split; lia. }
    destruct E as [E1 E2]. rewrite E1, E2.
    exists (akeys lo0 L). split; [|split; [apply akeys_ok | intros key Ik; rewrite (akeys_fst _ _ _ Ik); lia]].
    split; [apply akeys_length|]. split; [|exists (wino wr); auto].
    constructor.
    + fold L. lia.
    + exact Hnd.
    + fold L. intros i Hi. lia.
    + intros i Hi. lia.
    + intros n j Lj. destruct (Hon n j Lj) as [->|[(i & Hi & _)|(i & Hi & _)]]; [left; reflexivity | cbn [length] in Hi; lia | lia].
Qed.

Lemma start_rel_sk c crit k t0 off : RelSK c crit k (ts_e c off) t0 0 (fst (step (sys0 t0 off) (OStart c))) None.
Proof. cbn. repeat split. cbn. lia. Qed.

(* ------------------------------------------------------------------ THE THEOREM (stream form) *)
(* a is the view reconstructed from the reported rotation flags (what each closed file held, rCURRENT): its concatenation is
   what was written.  The directory left behind holds rCURRENT, the newest n closed files as they are and the next m as
   archives - and nothing else; and no operation fails or panics.  No condition on the strategy. *)
Theorem timestamps_cleanup_stream c crit k t0 off ops :
  tskcfg c crit k -> tag_ok c -> sfx_ok (c_spec c) -> Forall basic_op ops -> Forall tick_ok ops ->
  (0 <= t0 + ts_e c off)%Z -> (t0 + elapsed ops + ts_e c off < sec_max)%Z -> (N.of_nat (length ops) <= usize_max)%N ->
  let x0 := fst (step (sys0 t0 off) (OStart c)) in
  let a := a_run None ops (snd (run x0 ops)) in
  let r := run (sys0 t0 off) (OStart c :: ops ++ [OStop]) in
  let f := wfs (s_w (fst r)) in
  flat a = written ops
  /\ match a with
     | None => names f = []
     | Some (closed, cur) =>
       exists keys, tsk_view c (ts_e c off) f keys closed cur (k_lo k (length closed)) (k_mid k (length closed))
                    /\ keys_ok keys /\ (forall key, In key keys -> (t0 <= fst key <= t0 + elapsed ops)%Z)
     end
  /\ Forall obs_ok (snd r)
  /\ (forall m, crit = CSize m -> a = s_run m None ops).
Proof.
  intros Hcfg T Hsfx Hb Htk Hlo Hhi Hmax x0 a r f.
  assert (Y : years_ok (ts_e c off) t0 (t0 + elapsed ops)) by (split; assumption).
  destruct (stream_ix _ _ _ _ _ _ _ _ _ _ _ _ (sk_run_facts c crit k _ _ _ Hcfg Hsfx T Y) t0 off ops
              (proj1 (relsk_ix _ _ _ _ _ _ _ _) (start_rel_sk c crit k t0 off)) Hb Htk (Z.le_refl _) Hmax) as (Fl & V & K & Z).
  fold x0 a r in Fl, V, K, Z. split; [exact Fl|]. split; [|split; [exact K | exact Z]].
  destruct a as [[closed cur]|]; [|exact V].
  destruct V as (w & wr & ts & I & Ec & F & N). unfold f. rewrite F.
  destruct (ki_view c k _ _ w wr closed ts cur I Ec) as (keys & Vw & K' & Rg).
  exists keys. split; [exact Vw|]. split; [exact K'|]. intros key Ik. specialize (Rg key Ik). lia.
Qed.
Print Assumptions timestamps_cleanup_stream.
