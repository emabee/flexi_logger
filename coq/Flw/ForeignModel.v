(* Foreign files in the directory, model level: what a listing accepts, exactly; and the world primitives, the writer, the
   listing and the cleanup - for any infix filter whose listings reject the names of the stock - commute with the embedding
   of the file system into a directory that holds other entries, for every world, faults and kills included.  Rotation,
   initialisation and write_buffer commute for ANY naming whose naming step commutes and chooses a name outside the
   stock; Section Cfg is the instance for Numbers naming. *)
Require Import FL.Flw.WorldPar.
Require Import FL.Base.Bytes FL.Base.BytesFacts FL.Base.PathName FL.Fs.Fs FL.Fs.FsFacts FL.Time.Civil FL.Time.TsFormat
  FL.Names.FileSpec FL.Names.NamesFacts FL.Names.SortFacts FL.Names.FamilyFacts
  FL.Flw.Model FL.Flw.ModelFacts FL.Flw.NumFs FL.Flw.NumInv FL.Flw.NumListing FL.Flw.CleanupFacts
  FL.Flw.ForeignFs FL.Flw.ForeignSort.
Open Scope nat_scope.

(* the family test of the model for Numbers naming: the name is listed as a numbered file, plain or compressed,
   or it is the current file *)
Definition num_member (c : config) (n : bytes) : bool :=
  qf 0 (fsfx (c_spec c)) (fixed0 c) IFNum (fsfx (c_spec c)) n
  || qf 0 (fsfx (c_spec c)) (fixed0 c) IFNum (Some gz_sfx) n
  || beq n (cname c).

Lemma qf_num_off off sp_sfx fixed o n : qf off sp_sfx fixed IFNum o n = qf 0 sp_sfx fixed IFNum o n.
Proof. unfold qf. destruct (infix_candidate sp_sfx o fixed n); reflexivity. Qed.

(* (the number filter: "r" and one or more digits, nothing else; what follows the infix - y - is the restart part,
   the suffix, ".gz") *)
Lemma qf_num_shape off sp_sfx fixed o n : qf off sp_sfx fixed IFNum o n = true ->
  exists ds y, ds <> [] /\ all_digits ds = true /\ n = under fixed ++ r_char :: ds ++ y.
Proof.
  unfold qf. destruct (infix_candidate sp_sfx o fixed n) as [infix|] eqn:E; [|discriminate].
  apply infix_candidate_prefix in E. destruct E as [y E]. intros Hf. apply filter_num_spec in Hf.
  destruct Hf as [ds [-> [Hne Hd]]]. exists ds, y. split; [exact Hne|]. split; [exact Hd|]. rewrite E. reflexivity.
Qed.

(* the listing of the archives accepts m.gz iff the listing of the plain files accepts m (the suffix of the family must
   not be "gz": then the listing of the archives takes the plain files, too) *)
Lemma qf_gz_app off sp fixed flt m : fsfx sp <> Some gz_sfx ->
  qf off (fsfx sp) fixed flt (Some gz_sfx) (m ++ dot_gz) = qf off (fsfx sp) fixed flt (fsfx sp) m.
Proof.
  intros Hs. unfold qf. rewrite infix_candidate_plain. unfold infix_candidate, dot_gz. rewrite strip_suffix_app.
  destruct (fsfx sp) as [s|]; [|reflexivity].
  assert (Eb : beq s gz_sfx = false) by (apply beq_neq; congruence).
  change [103%N; 122%N] with gz_sfx. rewrite Eb. cbn [beq gz_sfx N.eqb Pos.eqb andb negb].
  destruct (strip_suffix (dot :: s) m) as [st|]; reflexivity.
Qed.

Lemma qf_plain_gz_name off sp fixed flt n : fsfx sp <> Some gz_sfx ->
  qf off (fsfx sp) fixed flt (fsfx sp) n = true -> qf off (fsfx sp) fixed flt (Some gz_sfx) (gz_name n) = true.
Proof. intros Hs H. rewrite gz_name_app, qf_gz_app by exact Hs. exact H. Qed.

Lemma qf_plain_spec off sp fixed flt n :
  qf off (fsfx sp) fixed flt (fsfx sp) n = true <->
  exists i rs, filter_infix off flt i = true /\ no_dot i /\ restart_part rs /\ i ++ rs <> []
               /\ n = under fixed ++ i ++ rs ++ sfxs sp.
Proof.
  unfold qf. rewrite infix_candidate_plain. unfold sfxs. split.
  - destruct (fsfx sp) as [s|].
    + destruct (strip_suffix (dot :: s) n) as [st|] eqn:Es; [|discriminate]. apply strip_suffix_iff in Es.
      destruct (cand_core fixed st) as [i|] eqn:Ec; [|discriminate]. intros Hf.
      apply cand_core_spec in Ec. destruct Ec as [rs [Hrs [Hnd [Hne Hst]]]].
      exists i, rs. repeat (split; [assumption|]). rewrite Es, Hst, <- !app_assoc. reflexivity.
    + destruct (cand_core fixed n) as [i|] eqn:Ec; [|discriminate]. intros Hf.
      apply cand_core_spec in Ec. destruct Ec as [rs [Hrs [Hnd [Hne Hst]]]].
      exists i, rs. repeat (split; [assumption|]). rewrite app_nil_r. exact Hst.
  - intros [i [rs [Hf [Hnd [Hrs [Hne Hn]]]]]].
    assert (Hc : cand_core fixed (under fixed ++ i ++ rs) = Some i).
    { apply cand_core_spec. exists rs. repeat (split; [assumption|]). reflexivity. }
    destruct (fsfx sp) as [s|].
    + replace n with ((under fixed ++ i ++ rs) ++ dot :: s) by (rewrite Hn, <- !app_assoc; reflexivity).
      rewrite strip_suffix_app, Hc. exact Hf.
    + rewrite app_nil_r in Hn. rewrite Hn, Hc. exact Hf.
Qed.

Lemma qf_gz_spec off sp fixed flt n : fsfx sp <> Some gz_sfx ->
  (qf off (fsfx sp) fixed flt (Some gz_sfx) n = true <->
   exists i rs, filter_infix off flt i = true /\ no_dot i /\ restart_part rs /\ i ++ rs <> []
                /\ n = under fixed ++ i ++ rs ++ sfxs sp ++ dot_gz).
Proof.
  intros Hs. split.
  - intros H. assert (Hn : exists m, n = m ++ dot_gz).
    { unfold qf, infix_candidate in H. destruct (strip_suffix (dot :: gz_sfx) n) as [stem|] eqn:Es; [|discriminate].
      apply strip_suffix_iff in Es. exists stem. exact Es. }
    destruct Hn as [m ->].
    rewrite qf_gz_app in H by exact Hs. rename H into Hm.
    apply qf_plain_spec in Hm. destruct Hm as [i [rs [Hf [Hnd [Hrs [Hne Hm]]]]]].
    exists i, rs. repeat (split; [assumption|]). rewrite Hm, <- !app_assoc. reflexivity.
  - intros [i [rs [Hf [Hnd [Hrs [Hne Hn]]]]]].
    replace n with (gz_name (under fixed ++ i ++ rs ++ sfxs sp)) by (rewrite gz_name_app, Hn, <- !app_assoc; reflexivity).
    apply qf_plain_gz_name; [exact Hs|]. apply qf_plain_spec. exists i, rs. repeat (split; [assumption|]). reflexivity.
Qed.

Lemma qf_gz_ext off sp fixed flt n : fsfx sp <> Some gz_sfx ->
  qf off (fsfx sp) fixed flt (Some gz_sfx) n = true -> ext_is n gz_sfx = true.
Proof.
  intros Hs H. apply (qf_gz_spec off sp fixed flt n Hs) in H. destruct H as [i [rs [_ [_ [_ [Hne ->]]]]]].
  replace (under fixed ++ i ++ rs ++ sfxs sp ++ dot_gz) with (gz_name (under fixed ++ i ++ rs ++ sfxs sp))
    by (rewrite gz_name_app, <- !app_assoc; reflexivity).
  apply ext_is_gz_name. intros E. apply app_eq_nil in E. destruct E as [_ E]. rewrite app_assoc in E.
  apply app_eq_nil in E. destruct E as [E _]. exact (Hne E).
Qed.

Lemma fixed_of_embed c : fts (c_spec c) = false -> forall w, fixed_of c w = fixed0 c.
Proof. intros Hts w. unfold fixed_of, fixed0, fixed_name_part. rewrite Hts. reflexivity. Qed.

Lemma cleanup_match c k (w3 : world) flt d :
  match k with KNever => (Ok tt, w3) | _ => cleanup_impl c w3 k flt d end = cleanup_impl c w3 k flt d.
Proof. destruct k; reflexivity. Qed.

(* ------------------------------------------------------------------ the rotation state of a writer: its naming state
   is of the kind P, its strategy and thread flag satisfy Q.  The initialisation makes such a state from a naming state
   of the kind, a rotation keeps it if the naming step stays within the kind *)
Definition rot_kind (P : naming_state -> Prop) (Q : cleanup -> bool -> Prop) (st : inner) : Prop :=
  match st with
  | Active (Some rs) _ _ => P (rs_naming rs) /\ Q (rs_cleanup rs) (rs_bg rs)
  | _ => True
  end.

Lemma initialize_kind (P : naming_state -> Prop) (Q : cleanup -> bool -> Prop) c crit nam k w i w' :
  c_rot c = Some (crit, nam, k) ->
  (forall ns infix w1, init_naming c w nam = (Ok (ns, infix), w1) -> P ns) ->
  Q k (match k with KNever => false | _ => c_bg c end) ->
  initialize c w = (Ok i, w') -> rot_kind P Q i.
Proof.
  intros Hrot HP HQ. unfold initialize. rewrite Hrot.
  destruct (init_naming c w nam) as [[[ns infix]| |] w1] eqn:En; cbn [bind]; try discriminate.
  destruct (open_log_file c w1 (Some infix)) as [[[wr path]| |] w2]; cbn [bind]; try discriminate.
  destruct (roll_new w2 crit (c_append c) path) as [[roll| |] w3]; cbn [bind]; try discriminate.
  rewrite cleanup_match.
  destruct (cleanup_impl c w3 k (ns_filter ns) (if naming_writes_direct nam then Some path else None)) as [[u| |] w4];
    cbn [bind]; try discriminate.
  intros H. injection H as <- _. split; [exact (HP ns infix w1 eq_refl) | exact HQ].
Qed.

Lemma mount_next_kind (P : naming_state -> Prop) (Q : cleanup -> bool -> Prop) c w st force r w' st' :
  (forall w0 ns r1 w1 ns1, P ns -> next_naming c w0 ns = (r1, w1, ns1) -> P ns1) ->
  rot_kind P Q st -> mount_next c w st force = (r, w', st') -> rot_kind P Q st'.
Proof.
  intros HP G. rewrite mount_next_g_eq. unfold mount_next_g.
  destruct st as [|[rs|] wr path]; try (intros H; injection H as _ _ <-; exact G).
  destruct (force || rotation_necessary w (rs_roll rs)); [|intros H; injection H as _ _ <-; exact G].
  destruct G as [Gn Gk]. destruct (next_naming c w (rs_naming rs)) as [[r1 w1] ns1] eqn:En.
  pose proof (HP _ _ _ _ _ Gn En) as Gn1.
  destruct r1 as [infix| |]; try (intros H; injection H as _ _ <-; split; [exact Gn1 | exact Gk]).
  destruct (open_log_file c w1 (Some infix)) as [[[wr' path']| |] w2];
    try (intros H; injection H as _ _ <-; split; [exact Gn1 | exact Gk]).
  unfold finish_rotation. destruct (w_flush w2 wr) as [[okf w2a] wra].
  destruct (cleanup_or_queue c _ (rs_bg rs) (rs_cleanup rs) (ns_filter ns1) _) as [rc w4].
  intros H; injection H as _ _ <-; split; [exact Gn1 | exact Gk].
Qed.

Section EmbedModel.
Variable fn : list (bytes * nat).
Variable fi : list file.
Notation emb := (embed fn fi).
Notation fnm := (fnames fn).
Notation k := (fk fi).

Definition embedw (w : world) : world := set_fs w (emb (wfs w)).
Definition shwr (wr : writer) : writer := {| wino := k + wino wr; wpend := wpend wr; wcap := wcap wr |}.
Definition lw {A} (p : A * world) : A * world := (fst p, embedw (snd p)).
Definition lw3 (p : bool * world * writer) : bool * world * writer :=
  let '(ok, w1, wr1) := p in (ok, embedw w1, shwr wr1).

(* ------------------------------------------------------------------ the world *)
Lemma tick_embed w : tick (embedw w) = lw (tick w).
Proof. unfold tick. cbn [embedw set_fs wfaults]. destruct (wfaults w); reflexivity. Qed.

Lemma effect_embed w (g gF : fs -> fs) : (forall f, gF (emb f) = emb (g f)) -> effect (embedw w) gF = embedw (effect w g).
Proof.
  intros H. unfold effect, kill_step. cbn [embedw set_fs wkill wfs].
  destruct (wkill w) as [[|[|j]]|]; unfold embedw, set_kill, set_fs; cbn; rewrite ?H; reflexivity.
Qed.

Lemma report_embed e w : report e (embedw w) = embedw (report e w).
Proof. unfold report. cbn [embedw set_fs wkill]. destruct (wkill w) as [[|j]|]; reflexivity. Qed.

Lemma p_write_embed w i b : p_write (embedw w) (k + i) b = lw (p_write w i b).
Proof.
  unfold p_write. destruct b as [|x b]; [reflexivity|]. rewrite tick_embed. destruct (tick w) as [flt w1]. cbn [lw fst snd].
  destruct flt; [reflexivity|]. unfold lw. cbn [fst snd]. f_equal. apply effect_embed. intros f. apply append_ino_embed.
Qed.

Lemma p_rename_embed w a b : ~ In a fnm -> ~ In b fnm -> p_rename (embedw w) a b = lw (p_rename w a b).
Proof.
  intros Ha Hb. unfold p_rename. rewrite tick_embed. destruct (tick w) as [flt w1]. cbn [lw fst snd].
  destruct flt; [reflexivity|]. change (wfs (embedw w1)) with (emb (wfs w1)). rewrite rename_embed by assumption.
  destruct (rename (wfs w1) a b) as [f'|]; [|reflexivity]. unfold lw. cbn [fst snd]. f_equal. apply effect_embed.
  intros f. rewrite rename_embed by assumption. destruct (rename f a b); reflexivity.
Qed.

Definition shino (o : option nat) : option nat := match o with Some i => Some (k + i) | None => None end.

Lemma p_open_embed w name app : ~ In name fnm ->
  p_open (embedw w) name app = (shino (fst (p_open w name app)), embedw (snd (p_open w name app))).
Proof.
  intros Hn. unfold p_open. rewrite tick_embed. destruct (tick w) as [flt w1]. cbn [lw fst snd].
  destruct flt; [reflexivity|]. change (wfs (embedw w1)) with (emb (wfs w1)). change (wnow (embedw w1)) with (wnow w1).
  rewrite file_of_embed_own by exact Hn.
  destruct (match file_of (wfs w1) name with Some fl => fdir fl | None => false end); [reflexivity|].
  cbn [fst snd shino]. destruct app.
  - rewrite open_append_embed by exact Hn. cbn [snd]. f_equal. apply effect_embed. intros f.
    rewrite open_append_embed by exact Hn. reflexivity.
  - rewrite open_trunc_embed by exact Hn. cbn [snd]. f_equal. apply effect_embed. intros f.
    rewrite open_trunc_embed by exact Hn. reflexivity.
Qed.

Lemma birth_or_now_embed w name : ~ In name fnm -> birth_or_now (embedw w) name = birth_or_now w name.
Proof.
  intros Hn. unfold birth_or_now. change (wfs (embedw w)) with (emb (wfs w)). rewrite file_of_embed_own by exact Hn. reflexivity.
Qed.

Lemma rotation_necessary_embed w r : rotation_necessary (embedw w) r = rotation_necessary w r.
Proof. destruct r; reflexivity. Qed.

Lemma reset_size_and_date_embed w r path : ~ In path fnm ->
  reset_size_and_date (embedw w) r path = reset_size_and_date w r path.
Proof. intros Hn. destruct r; cbn [reset_size_and_date]; rewrite ?birth_or_now_embed by exact Hn; reflexivity. Qed.

Lemma name_of_embed c w o : name_of c (embedw w) o = name_of c w o.
Proof. unfold name_of, fixed_of, starttxt, local_civil. reflexivity. Qed.

Lemma p_remove_embed w a : ~ In a fnm -> p_remove (embedw w) a = lw (p_remove w a).
Proof.
  intros Ha. unfold p_remove. rewrite tick_embed. destruct (tick w) as [flt w1]. cbn [lw fst snd].
  destruct flt; [reflexivity|]. change (wfs (embedw w1)) with (emb (wfs w1)). rewrite lookup_embed_own by exact Ha.
  destruct (lookup (wfs w1) a) as [i|]; [|reflexivity]. unfold lw. cbn [fst snd]. f_equal. apply effect_embed.
  intros f. apply unlink_embed. exact Ha.
Qed.

Lemma set_gz_embed f i st d : set_gz (emb f) (k + i) st d = emb (set_gz f i st d).
Proof. unfold set_gz. rewrite inode_embed. unfold embed. cbn [names inodes]. rewrite upd_embed. reflexivity. Qed.

Lemma compress_file_embed w n : ~ In n fnm -> ~ In (gz_name n) fnm ->
  compress_file (embedw w) n = lw (compress_file w n).
Proof.
  intros Hn Hg. unfold compress_file. rewrite tick_embed. destruct (tick w) as [flt1 w1]. cbn [lw fst snd].
  destruct flt1; [reflexivity|]. change (wfs (embedw w1)) with (emb (wfs w1)). change (wnow (embedw w1)) with (wnow w1).
  rewrite file_of_embed_own by exact Hg.
  destruct (match file_of (wfs w1) (gz_name n) with Some fl => fdir fl | None => false end); [reflexivity|].
  rewrite open_trunc_embed by exact Hg. cbn [snd].
  set (ino := snd (open_trunc (wfs w1) (gz_name n) 2 (wnow w1))).
  rewrite (effect_embed w1 (fun f => fst (open_trunc f (gz_name n) 2 (wnow w1))) (fun f => fst (open_trunc f (gz_name n) 2 (wnow w1))))
    by (intros f; rewrite open_trunc_embed by exact Hg; reflexivity).
  rewrite tick_embed. destruct (tick (effect w1 (fun f => fst (open_trunc f (gz_name n) 2 (wnow w1))))) as [flt2 w3]. cbn [lw fst snd].
  assert (Ed : forall w' d, effect (embedw w') (fun f => set_gz f (k + ino) 1 d) = embedw (effect w' (fun f => set_gz f ino 1 d))).
  { intros w' d. apply effect_embed. intros f. apply set_gz_embed. }
  destruct flt2; [rewrite Ed; reflexivity|].
  change (wfs (embedw w3)) with (emb (wfs w3)). rewrite lookup_embed_own by exact Hn.
  destruct (lookup (wfs w3) n) as [src|]; [|rewrite Ed; reflexivity].
  rewrite content_embed. rewrite tick_embed. destruct (tick w3) as [flt3 w4]. cbn [lw fst snd].
  destruct flt3; [rewrite Ed; reflexivity|].
  rewrite (effect_embed w4 (fun f => f) (fun f => f)) by reflexivity.
  rewrite tick_embed. destruct (tick (effect w4 (fun f => f))) as [flt4 w6]. cbn [lw fst snd].
  destruct flt4; [rewrite Ed; reflexivity|]. rewrite Ed. apply p_remove_embed. exact Hn.
Qed.

Lemma cleanup_loop_embed ll total cur : forall files w idx,
  (forall n, In n files -> ~ In n fnm /\ (ext_is n gz_sfx = true \/ ~ In (gz_name n) fnm)) ->
  cleanup_loop (embedw w) files idx ll total cur = lw (cleanup_loop w files idx ll total cur).
Proof.
  induction files as [|n r IH]; intros w idx H; [reflexivity|]. cbn [cleanup_loop].
  destruct (H n (or_introl eq_refl)) as [Hn Hg].
  assert (Hr : forall m, In m r -> ~ In m fnm /\ (ext_is m gz_sfx = true \/ ~ In (gz_name m) fnm)) by (intros m Hm; apply H; right; exact Hm).
  destruct (match cur with Some p => beq p n | None => false end); [apply IH; exact Hr|].
  assert (Hc : ext_is n gz_sfx = false -> compress_file (embedw w) n = lw (compress_file w n)).
  { intros E. apply compress_file_embed; [exact Hn|]. destruct Hg as [Hg|Hg]; [congruence | exact Hg]. }
  destruct (Nat.leb total idx).
  - rewrite p_remove_embed by exact Hn. destruct (p_remove w n) as [ok w1]. cbn [lw fst snd]. destruct ok; [|reflexivity].
    apply IH. exact Hr.
  - destruct (Nat.leb ll idx); [|apply IH; exact Hr]. unfold ext_is in Hc. destruct (extension n) as [e|].
    + destruct (beq e gz_sfx); [apply IH; exact Hr|]. rewrite Hc by reflexivity.
      destruct (compress_file w n) as [ok w1]. cbn [lw fst snd]. destruct ok; [|reflexivity]. apply IH. exact Hr.
    + rewrite Hc by reflexivity.
      destruct (compress_file w n) as [ok w1]. cbn [lw fst snd]. destruct ok; [|reflexivity]. apply IH. exact Hr.
Qed.

Lemma remove_redundant_embed : forall red w files, (forall n, In n red -> ~ In n fnm) ->
  remove_redundant (embedw w) red files = (let '(ok, w1, fl) := remove_redundant w red files in (ok, embedw w1, fl)).
Proof.
  induction red as [|n r IH]; intros w files H; [reflexivity|]. cbn [remove_redundant].
  rewrite p_remove_embed by (apply H; left; reflexivity). destruct (p_remove w n) as [ok w1]. cbn [lw fst snd].
  destruct ok; [|reflexivity]. apply IH. intros m Hm. apply H. right. exact Hm.
Qed.

Lemma remove_redundant_incl : forall red w files ok w1 fl,
  remove_redundant w red files = (ok, w1, fl) -> forall n, In n fl -> In n files.
Proof.
  induction red as [|m r IH]; intros w files ok w1 fl H n Hn; cbn [remove_redundant] in H.
  - injection H as _ _ <-. exact Hn.
  - destruct (p_remove w m) as [ok' w']. destruct ok'.
    + apply (IH _ _ _ _ _ H) in Hn. apply filter_In in Hn. apply Hn.
    + injection H as _ _ <-. exact Hn.
Qed.

(* ------------------------------------------------------------------ the writer *)
Lemma w_flush_embed w wr : w_flush (embedw w) (shwr wr) = lw3 (w_flush w wr).
Proof.
  unfold w_flush. cbn [shwr wino wpend wcap]. rewrite p_write_embed. destruct (p_write w (wino wr) (wpend wr)) as [ok w1].
  cbn [lw fst snd]. destruct ok; reflexivity.
Qed.

Lemma w_write_embed w wr b : w_write (embedw w) (shwr wr) b = lw3 (w_write w wr b).
Proof.
  unfold w_write. change (wcap (shwr wr)) with (wcap wr). change (wpend (shwr wr)) with (wpend wr).
  change (wino (shwr wr)) with (k + wino wr). destruct (wcap wr) as [cp|] eqn:Ecap.
  - destruct (Nat.ltb (length b) (cp - length (wpend wr))); [reflexivity|].
    destruct (Nat.ltb (cp - length (wpend wr)) (length b)).
    + rewrite w_flush_embed.
      destruct (w_flush w wr) as [[ok1 w1] wr1]. cbn [lw3]. destruct ok1; [|reflexivity].
      destruct (Nat.leb cp (length b)); [|reflexivity]. cbn [shwr wino]. rewrite p_write_embed.
      destruct (p_write w1 (wino wr1) b) as [ok w2]. reflexivity.
    + cbv iota beta. destruct (Nat.leb cp (length b)); [|reflexivity]. change (wino (shwr wr)) with (k + wino wr). rewrite p_write_embed.
      destruct (p_write w (wino wr) b) as [ok w2]. reflexivity.
  - rewrite p_write_embed. destruct (p_write w (wino wr) b) as [ok w1]. reflexivity.
Qed.

Lemma w_drop_embed w wr : w_drop (embedw w) (shwr wr) = embedw (w_drop w wr).
Proof. unfold w_drop. rewrite w_flush_embed. destruct (w_flush w wr) as [[ok w1] wr1]. reflexivity. Qed.

(* ------------------------------------------------------------------ the listing *)
Lemma filter_related_embed f sfx fixed (q : bytes -> bool) : (forall n, In n fnm -> q n = false) ->
  filter q (related_files (emb f) sfx fixed) = filter q (related_files f sfx fixed).
Proof.
  intros Hq. unfold related_files. rewrite !filter_rev_comm. f_equal.
  rewrite dir_names_embed, filter_app.
  rewrite (filter_ext_in (fun n => is_reg_file (emb f) n && is_prefix fixed n) (fun n => is_reg_file f n && is_prefix fixed n) (dir_names f)).
  - apply filter_sort_by_key_app. intros b Hb. apply filter_In in Hb. apply Hq. apply Hb.
  - intros n Hn. apply dir_names_lookup in Hn. destruct Hn as [j Hj]. unfold is_reg_file.
    rewrite (file_of_embed_known fn fi f n j Hj). reflexivity.
Qed.

Lemma with_listing_embed {A} w (g gF : world -> option A) : (forall w', gF (embedw w') = g w') ->
  with_listing (embedw w) gF = lw (with_listing w g).
Proof.
  intros H. unfold with_listing. rewrite tick_embed. destruct (tick w) as [fl w1]. cbn [lw fst snd].
  destruct fl; [reflexivity|]. rewrite H. destruct (g w1); reflexivity.
Qed.

Lemma filter_files_embed off sp_sfx fixed f flt o :
  (forall n, In n fnm -> qf off sp_sfx fixed flt o n = false) ->
  filter_files off sp_sfx fixed (related_files (emb f) sp_sfx fixed) flt o
  = filter_files off sp_sfx fixed (related_files f sp_sfx fixed) flt o.
Proof.
  intros H. rewrite !filter_files_total. f_equal. apply filter_related_embed. exact H.
Qed.

Lemma lookup_is_some_embed f n : ~ In n fnm ->
  match lookup (emb f) n with Some _ => true | None => false end = match lookup f n with Some _ => true | None => false end.
Proof. intros H. rewrite lookup_embed_own by exact H. destruct (lookup f n); reflexivity. Qed.
Lemma list_log_gz_embed_g off sp fixed f flt :
  (forall n, In n fnm -> qf off (fsfx sp) fixed flt (fsfx sp) n = false) ->
  (forall n, In n fnm -> qf off (fsfx sp) fixed flt (Some gz_sfx) n = false) ->
  list_log_gz off sp fixed (emb f) flt = list_log_gz off sp fixed f flt.
Proof.
  intros Hp Hg. unfold list_log_gz, existing_rot, sel_log_gz. cbn [sel_plain sel_gz sel_rcur sel_custom].
  rewrite !filter_files_embed by assumption. reflexivity.
Qed.

Definition shwp (r : res (writer * bytes)) : res (writer * bytes) :=
  match r with Ok (wr, p) => Ok (shwr wr, p) | Err => Err | Panic => Panic end.

Lemma open_log_file_embed c : c_symlink c = false -> forall w infix, ~ In (name_of c w (Some infix)) fnm ->
  open_log_file c (embedw w) (Some infix) = (shwp (fst (open_log_file c w (Some infix))), embedw (snd (open_log_file c w (Some infix)))).
Proof.
  intros Hlink w infix Hn. unfold open_log_file, do_symlink. rewrite Hlink. rewrite name_of_embed.
  rewrite p_open_embed by exact Hn.
  destruct (p_open w (name_of c w (Some infix)) (c_append c)) as [o w2]. cbn [fst snd]. destruct o; reflexivity.
Qed.

Lemma roll_new_embed crit w append path : ~ In path fnm ->
  roll_new (embedw w) crit append path = lw (roll_new w crit append path).
Proof.
  intros Hn. unfold roll_new. destruct append.
  - rewrite tick_embed. destruct (tick w) as [fl w']. cbn [lw fst snd]. destruct fl; [reflexivity|].
    change (wfs (embedw w')) with (emb (wfs w')). rewrite file_of_embed_own by exact Hn.
    destruct (file_of (wfs w') path); [|reflexivity]. rewrite birth_or_now_embed by exact Hn. reflexivity.
  - rewrite birth_or_now_embed by exact Hn. reflexivity.
Qed.

Definition shin (st : inner) : inner :=
  match st with Initial => Initial | Active o wr p => Active o (shwr wr) p end.
Definition shres (r : res inner) : res inner :=
  match r with Ok i => Ok (shin i) | Err => Err | Panic => Panic end.

Definition lm (p : res unit * world * inner) : res unit * world * inner :=
  let '(r, w1, st1) := p in (r, embedw w1, shin st1).

Definition embeds (s : flw) : flw := {| f_cfg := f_cfg s; f_inner := shin (f_inner s); f_poisoned := f_poisoned s |}.

Definition lwb (p : res unit * world * flw * bool) : res unit * world * flw * bool :=
  let '(r, w1, s1, rot) := p in (r, embedw w1, embeds s1, rot).


(* ------------------------------------------------------------------ the cleanup, for an infix filter whose listings
   reject the names of the stock *)
Section CleanupFlt.
Variable c : config.
Variable flt : infix_filter.
Hypothesis Hts : fts (c_spec c) = false.
Hypothesis Hplain : forall off n, In n fnm -> qf off (fsfx (c_spec c)) (fixed0 c) flt (fsfx (c_spec c)) n = false.
Hypothesis Hgz : forall off n, In n fnm -> qf off (fsfx (c_spec c)) (fixed0 c) flt (Some gz_sfx) n = false.

Lemma list_log_gz_embed_flt off f :
  list_log_gz off (c_spec c) (fixed0 c) (emb f) flt = list_log_gz off (c_spec c) (fixed0 c) f flt.
Proof. apply list_log_gz_embed_g; intros n Hn; [apply Hplain | apply Hgz]; exact Hn. Qed.

Lemma listed_own_flt off f files : fsfx (c_spec c) <> Some gz_sfx ->
  list_log_gz off (c_spec c) (fixed0 c) f flt = Some files ->
  forall n, In n files -> ~ In n fnm /\ (ext_is n gz_sfx = true \/ ~ In (gz_name n) fnm).
Proof.
  intros Hs. unfold list_log_gz, existing_rot, sel_log_gz. cbn [sel_plain sel_gz sel_rcur sel_custom].
  rewrite !filter_files_total. cbn [app_opt]. intros E. injection E as <-. intros n Hn. rewrite !app_nil_r in Hn.
  apply in_app_or in Hn. destruct Hn as [Hn|Hn]; apply filter_In in Hn; destruct Hn as [_ Q].
  - split.
    + intros Hf. rewrite (Hplain off n Hf) in Q. discriminate.
    + right. intros Hf. pose proof (qf_plain_gz_name off (c_spec c) (fixed0 c) flt n Hs Q) as Q'.
      rewrite (Hgz off _ Hf) in Q'. discriminate.
  - split.
    + intros Hf. rewrite (Hgz off n Hf) in Q. discriminate.
    + left. exact (qf_gz_ext off (c_spec c) (fixed0 c) flt n Hs Q).
Qed.

Lemma cleanup_body_embed_flt w cur ll total : fsfx (c_spec c) <> Some gz_sfx ->
  cleanup_body c (embedw w) flt cur ll total = lw (cleanup_body c w flt cur ll total).
Proof.
  intros Hs. unfold cleanup_body. rewrite tick_embed. destruct (tick w) as [fl w1]. cbn [lw fst snd]. destruct fl; [reflexivity|].
  rewrite !(fixed_of_embed c Hts). change (wfs (embedw w1)) with (emb (wfs w1)). change (woff (embedw w1)) with (woff w1).
  rewrite list_log_gz_embed_flt.
  destruct (list_log_gz (woff w1) (c_spec c) (fixed0 c) (wfs w1) flt) as [files|] eqn:El; [|reflexivity].
  pose proof (listed_own_flt _ _ _ Hs El) as Hown.
  rewrite remove_redundant_embed by (intros n Hn; unfold redundant_gz in Hn; apply filter_In in Hn; apply Hown; apply Hn).
  destruct (remove_redundant w1 (redundant_gz files) files) as [[ok0 w1'] files'] eqn:Er.
  destruct ok0; cbn [negb]; [|reflexivity].
  rewrite cleanup_loop_embed by (intros n Hn; apply Hown; eapply remove_redundant_incl; eassumption).
  destruct (cleanup_loop w1' files' 0 ll total cur) as [ok w2]. reflexivity.
Qed.

Lemma cleanup_impl_embed_flt w kc cur : kc = KNever \/ fsfx (c_spec c) <> Some gz_sfx ->
  cleanup_impl c (embedw w) kc flt cur = lw (cleanup_impl c w kc flt cur).
Proof.
  intros [->|Hs]; [reflexivity|]. rewrite !cleanup_impl_body.
  destruct kc; [reflexivity| | |]; apply cleanup_body_embed_flt; exact Hs.
Qed.
End CleanupFlt.

Lemma cleanup_or_queue_embed c w bg k flt cur :
  (forall w', cleanup_impl c (embedw w') k flt cur = lw (cleanup_impl c w' k flt cur)) ->
  cleanup_or_queue c (embedw w) bg k flt cur = lw (cleanup_or_queue c w bg k flt cur).
Proof.
  intros H. unfold cleanup_or_queue. destruct bg; [|apply H]. change (wacts (embedw w)) with (wacts w).
  destruct k; [reflexivity| | |]; (destruct (Nat.eqb (wacts w) 1); [reflexivity|]); rewrite H;
    destruct (cleanup_impl c w _ flt cur) as [[u| |] w1]; reflexivity.
Qed.

Lemma finish_rotation_embed c w2 rs ns1 wr wr' path' : ~ In path' fnm ->
  (forall w cur, cleanup_impl c (embedw w) (rs_cleanup rs) (ns_filter ns1) cur
                 = lw (cleanup_impl c w (rs_cleanup rs) (ns_filter ns1) cur)) ->
  finish_rotation c (embedw w2) rs ns1 (shwr wr) (shwr wr') path' = lm (finish_rotation c w2 rs ns1 wr wr' path').
Proof.
  intros Hn HC. unfold finish_rotation. rewrite w_flush_embed. destruct (w_flush w2 wr) as [[okf w2a] wra]. cbn [lw3].
  replace (if okf then embedw w2a else report EFlush (embedw w2a)) with (embedw (if okf then w2a else report EFlush w2a))
    by (destruct okf; [reflexivity | symmetry; apply report_embed]).
  rewrite w_drop_embed, reset_size_and_date_embed by exact Hn.
  rewrite cleanup_or_queue_embed by (intros w'; apply HC).
  destruct (cleanup_or_queue c _ _ _ _ _) as [rc w4]. reflexivity.
Qed.

Definition ln (p : res bytes * world * naming_state) : res bytes * world * naming_state :=
  let '(r, w1, ns1) := p in (r, embedw w1, ns1).

Lemma mount_next_embed_gen c w st force : c_symlink c = false ->
  (forall rs wr p, st = Active (Some rs) wr p ->
     next_naming c (embedw w) (rs_naming rs) = ln (next_naming c w (rs_naming rs))
     /\ forall infix w1 ns1, next_naming c w (rs_naming rs) = (Ok infix, w1, ns1) ->
          ~ In (name_of c w1 (Some infix)) fnm
          /\ forall w' cur, cleanup_impl c (embedw w') (rs_cleanup rs) (ns_filter ns1) cur
                            = lw (cleanup_impl c w' (rs_cleanup rs) (ns_filter ns1) cur)) ->
  mount_next c (embedw w) (shin st) force = lm (mount_next c w st force).
Proof.
  intros Hlink H. rewrite !mount_next_g_eq. destruct st as [|[rs|] wr path]; try reflexivity.
  destruct (H rs wr path eq_refl) as [HN HO]. unfold mount_next_g. cbn [shin]. rewrite rotation_necessary_embed.
  destruct (force || rotation_necessary w (rs_roll rs)); [|reflexivity].
  rewrite HN. destruct (next_naming c w (rs_naming rs)) as [[r w1] ns1] eqn:En. cbn [ln].
  destruct r as [infix| |]; [|reflexivity|reflexivity].
  destruct (HO infix w1 ns1 eq_refl) as [Hn HC].
  rewrite (open_log_file_embed c Hlink) by exact Hn.
  destruct (open_log_file c w1 (Some infix)) as [r2 w2] eqn:Eo. cbn [fst snd].
  destruct r2 as [[wr' path']| |]; cbn [shwp]; [|reflexivity|reflexivity].
  apply open_log_file_path in Eo. subst path'. apply finish_rotation_embed; assumption.
Qed.

Lemma initialize_embed_gen c crit nam k w : c_symlink c = false -> c_rot c = Some (crit, nam, k) ->
  init_naming c (embedw w) nam = lw (init_naming c w nam) ->
  (forall ns infix w1, init_naming c w nam = (Ok (ns, infix), w1) ->
     ~ In (name_of c w1 (Some infix)) fnm
     /\ forall w' cur, cleanup_impl c (embedw w') k (ns_filter ns) cur = lw (cleanup_impl c w' k (ns_filter ns) cur)) ->
  initialize c (embedw w) = (shres (fst (initialize c w)), embedw (snd (initialize c w))).
Proof.
  intros Hlink Hrot HN HO. unfold initialize. rewrite Hrot, HN.
  destruct (init_naming c w nam) as [r w1] eqn:En.
  destruct r as [[ns infix]| |]; cbn [lw fst snd bind]; [|reflexivity|reflexivity].
  destruct (HO ns infix w1 eq_refl) as [Hn HC].
  rewrite (open_log_file_embed c Hlink) by exact Hn.
  destruct (open_log_file c w1 (Some infix)) as [r2 w2] eqn:Eo. cbn [fst snd].
  destruct r2 as [[wr path]| |]; cbn [shwp bind]; [|reflexivity|reflexivity].
  apply open_log_file_path in Eo. subst path.
  rewrite roll_new_embed by exact Hn.
  destruct (roll_new w2 crit (c_append c) (name_of c w1 (Some infix))) as [r3 w3].
  destruct r3 as [roll| |]; cbn [lw fst snd bind]; [|reflexivity|reflexivity].
  rewrite !cleanup_match, HC. destruct (cleanup_impl c w3 k _ _) as [r4 w4]. cbn [lw fst snd].
  destruct r4 as [u| |]; cbn [bind]; [|reflexivity|reflexivity].
  destruct (match k with KNever => false | _ => c_bg c end); reflexivity.
Qed.

Lemma write_buffer_embed_pt c s w b : f_cfg s = c ->
  (f_inner s = Initial ->
     initialize c (embedw w) = (shres (fst (initialize c w)), embedw (snd (initialize c w)))) ->
  (forall w0 st0,
     match f_inner s with
     | Initial => match initialize c w with (Ok i, w') => Some (w', i) | _ => None end
     | i => Some (w, i)
     end = Some (w0, st0) ->
     mount_next c (embedw w0) (shin st0) false = lm (mount_next c w0 st0 false)) ->
  write_buffer (embeds s) (embedw w) b = lwb (write_buffer s w b).
Proof.
  intros Ec HI HMn. destruct s as [c0 st p]. cbn [f_cfg f_inner f_poisoned] in *. subst c0.
  unfold write_buffer. cbn [embeds f_cfg f_inner f_poisoned].
  match goal with |- (match ?Y with _ => _ end) = lwb (match ?X with _ => _ end) => set (Y0 := Y); set (X0 := X) end.
  assert (E0 : Y0 = lm X0 /\ forall w0 st0, X0 = (Ok tt, w0, st0) ->
                 mount_next c (embedw w0) (shin st0) false = lm (mount_next c w0 st0 false)).
  { subst Y0 X0. destruct st as [|o wr path].
    - cbn [shin]. rewrite (HI eq_refl). destruct (initialize c w) as [r w'] eqn:Ei. cbn [fst snd].
      destruct r as [i| |]; cbn [shres lm]; (split; [reflexivity|]); intros w0 st0 H; try discriminate.
      injection H as <- <-. apply HMn. reflexivity.
    - cbn [shin lm]. split; [reflexivity|]. intros w0 st0 H. injection H as <- <-. apply HMn. reflexivity. }
  destruct E0 as [E0 G0]. rewrite E0. clearbody X0. clear E0 Y0. destruct X0 as [[r0 w0] st0].
  cbn [lm].
  destruct r0 as [u| |]; [|reflexivity|reflexivity]. destruct u.
  specialize (G0 w0 st0 eq_refl).
  assert (Erot : match shin st0 with Active (Some rs) _ _ => rotation_necessary (embedw w0) (rs_roll rs) | _ => false end
               = match st0 with Active (Some rs) _ _ => rotation_necessary w0 (rs_roll rs) | _ => false end).
  { destruct st0 as [|[rs|] wr path]; reflexivity. }
  rewrite Erot. clear Erot.
  rewrite G0. destruct (mount_next c w0 st0 false) as [[r1 w1] st1]. cbn [lm].
  destruct r1 as [u1| |]; try reflexivity.
  - destruct st1 as [|o_rot wr path]; [reflexivity|]. cbn [shin]. rewrite w_write_embed.
    destruct (w_write w1 wr b) as [[ok w3] wr']. cbn [lw3]. destruct ok; reflexivity.
  - rewrite report_embed. destruct st1 as [|o_rot wr path]; [reflexivity|]. cbn [shin]. rewrite w_write_embed.
    destruct (w_write (report ELogFile w1) wr b) as [[ok w3] wr']. cbn [lw3]. destruct ok; reflexivity.
Qed.

Lemma flush_state_embed s w :
  flush_state (embeds s) (embedw w) = (let '(ok, w1, s1) := flush_state s w in (ok, embedw w1, embeds s1)).
Proof.
  unfold flush_state. destruct s as [c0 st p]. cbn [embeds f_inner f_cfg f_poisoned]. destruct st as [|o wr path]; [reflexivity|].
  cbn [shin]. rewrite w_flush_embed. destruct (w_flush w wr) as [[ok w1] wr']. reflexivity.
Qed.

Lemma shutdown_state_embed s w :
  shutdown_state (embeds s) (embedw w) = (let '(w1, s1) := shutdown_state s w in (embedw w1, embeds s1)).
Proof.
  unfold shutdown_state, drain_acts. destruct s as [c0 st p]. cbn [embeds f_inner f_cfg f_poisoned]. destruct st as [|o wr path]; [reflexivity|].
  cbn [shin]. rewrite w_flush_embed. destruct (w_flush w wr) as [[ok w1] wr']. cbn [lw3].
  destruct ok; [reflexivity|]. rewrite report_embed. reflexivity.
Qed.

Lemma drop_state_embed s w : drop_state (embeds s) (embedw w) = embedw (drop_state s w).
Proof.
  unfold drop_state. rewrite shutdown_state_embed. destruct (shutdown_state s w) as [w1 s1].
  rewrite shutdown_state_embed. destruct (shutdown_state s1 w1) as [w2 s2].
  destruct s2 as [c0 st p]. cbn [embeds f_inner]. destruct st as [|o wr path]; [reflexivity|]. cbn [shin]. apply w_drop_embed.
Qed.

Section Cfg.
Variable c : config.
Variable crit : criterion.
Variable kc : cleanup.
(* Numbers naming with cleanup strategy kc, no start-time part in the names, no symlink; with a cleanup: no cleanup
   thread, and the suffix is not "gz" *)
Hypothesis Hrot : c_rot c = Some (crit, NNumbers, kc).
Hypothesis Hts : fts (c_spec c) = false.
Hypothesis Hlink : c_symlink c = false.
Hypothesis Hk : kc = KNever \/ (c_bg c = false /\ fsfx (c_spec c) <> Some gz_sfx).
(* no entry of the stock is a member of the family of c *)
Hypothesis Hforeign : forall n, In n fnm -> num_member c n = false.

Lemma foreign_plain off n : In n fnm -> qf off (fsfx (c_spec c)) (fixed0 c) IFNum (fsfx (c_spec c)) n = false.
Proof. intros H. apply Hforeign in H. unfold num_member in H. rewrite qf_num_off. rewrite !orb_false_iff in H. apply H. Qed.
Lemma foreign_gz off n : In n fnm -> qf off (fsfx (c_spec c)) (fixed0 c) IFNum (Some gz_sfx) n = false.
Proof. intros H. apply Hforeign in H. unfold num_member in H. rewrite qf_num_off. rewrite !orb_false_iff in H. apply H. Qed.
Lemma cname_own : ~ In (cname c) fnm.
Proof. intros H. apply Hforeign in H. unfold num_member in H. rewrite beq_refl, orb_true_r in H. discriminate. Qed.
Lemma rname_own idx : ~ In (nm c (number_infix idx)) fnm.
Proof.
  intros H. pose proof (foreign_plain 0%Z _ H) as Q. pose proof (qf_rname 0%Z c (N.to_nat idx)) as Q'.
  unfold rname in Q'. rewrite N2Nat.id in Q'. congruence.
Qed.

Lemma get_highest_index_embed off f :
  get_highest_index off (c_spec c) (fixed0 c) (emb f) = get_highest_index off (c_spec c) (fixed0 c) f.
Proof. unfold get_highest_index. rewrite (list_log_gz_embed_flt c IFNum foreign_plain foreign_gz). reflexivity. Qed.

(* ------------------------------------------------------------------ the state machine *)
Lemma index_for_rcurrent_embed w o rot :
  index_for_rcurrent c (embedw w) o rot = lw (index_for_rcurrent c w o rot).
Proof.
  unfold index_for_rcurrent.
  assert (E0 : (match o with
                | Some i => (Ok i, embedw w)
                | None => with_listing (embedw w) (fun w' =>
                            match get_highest_index (woff w') (c_spec c) (fixed_of c w') (wfs w') with
                            | None => None | Some (Some i) => Some (i + 1)%N | Some None => Some 0%N end)
                end)
               = lw (match o with
                     | Some i => (Ok i, w)
                     | None => with_listing w (fun w' =>
                                 match get_highest_index (woff w') (c_spec c) (fixed_of c w') (wfs w') with
                                 | None => None | Some (Some i) => Some (i + 1)%N | Some None => Some 0%N end)
                     end)).
  { destruct o as [i|]; [reflexivity|]. apply with_listing_embed. intros w'.
    rewrite !(fixed_of_embed c Hts). change (wfs (embedw w')) with (emb (wfs w')). change (woff (embedw w')) with (woff w').
    rewrite get_highest_index_embed. reflexivity. }
  rewrite E0. clear E0.
  destruct (match o with
            | Some i => (Ok i, w)
            | None => with_listing w (fun w' =>
                        match get_highest_index (woff w') (c_spec c) (fixed_of c w') (wfs w') with
                        | None => None | Some (Some i) => Some (i + 1)%N | Some None => Some 0%N end)
            end) as [r0 w0].
  cbn [lw fst snd]. destruct r0 as [idx| |]; [|reflexivity|reflexivity].
  destruct rot; [|reflexivity].
  rewrite !name_of_embed, !(name_of_fixed c w0) by exact Hts.
  rewrite p_rename_embed; [|exact cname_own | apply rname_own].
  destruct (p_rename w0 (as_name (c_spec c) (fixed0 c) (Some cur_infix)) (as_name (c_spec c) (fixed0 c) (Some (number_infix idx)))) as [r w1].
  cbn [lw fst snd]. destruct r; reflexivity.
Qed.

Lemma cname_name_of w : name_of c w (Some cur_infix) = cname c.
Proof. rewrite name_of_fixed by exact Hts. reflexivity. Qed.

Lemma hk_weak : kc = KNever \/ fsfx (c_spec c) <> Some gz_sfx.
Proof. destruct Hk as [H|[_ H]]; [left | right]; exact H. Qed.

Lemma cleanup_impl_embed w cur : cleanup_impl c (embedw w) kc IFNum cur = lw (cleanup_impl c w kc IFNum cur).
Proof. exact (cleanup_impl_embed_flt c IFNum Hts foreign_plain foreign_gz w kc cur hk_weak). Qed.

Lemma initialize_embed w :
  initialize c (embedw w) = (shres (fst (initialize c w)), embedw (snd (initialize c w))).
Proof.
  apply (initialize_embed_gen c crit NNumbers kc w Hlink Hrot); cbn [init_naming].
  - rewrite index_for_rcurrent_embed. destruct (index_for_rcurrent c w None (negb (c_append c))) as [[idx| |] w1]; reflexivity.
  - intros ns infix w1. destruct (index_for_rcurrent c w None (negb (c_append c))) as [[idx| |] w0]; cbn [bind]; try discriminate.
    intros E. injection E as <- <- <-. split; [rewrite cname_name_of; exact cname_own|]. intros w' cur. apply cleanup_impl_embed.
Qed.

(* the states of a writer with Numbers naming and the cleanup strategy kc (no cleanup thread) *)
Definition good_inner (st : inner) : Prop :=
  match st with
  | Active (Some rs) _ _ => (exists idx, rs_naming rs = NSNumR idx) /\ rs_cleanup rs = kc /\ rs_bg rs = false
  | _ => True
  end.

Lemma bg_false : match kc with KNever => false | _ => c_bg c end = false.
Proof. destruct Hk as [->|[Hb _]]; [reflexivity|]. destruct kc; [reflexivity | exact Hb | exact Hb | exact Hb]. Qed.

Lemma initialize_good w i w' : initialize c w = (Ok i, w') -> good_inner i.
Proof.
  apply (initialize_kind (fun ns => exists idx, ns = NSNumR idx) (fun k b => k = kc /\ b = false) c crit NNumbers kc w i w' Hrot).
  - intros ns infix w1. cbn [init_naming].
    destruct (index_for_rcurrent c w None (negb (c_append c))) as [[idx| |] w0]; cbn [bind]; try discriminate.
    intros H. injection H as <- _ _. eauto.
  - split; [reflexivity | exact bg_false].
Qed.

Lemma mount_next_embed w st force : good_inner st ->
  mount_next c (embedw w) (shin st) force = lm (mount_next c w st force).
Proof.
  intros G. apply (mount_next_embed_gen c w st force Hlink). intros rs wr p ->.
  destruct G as [[idx En] [Ek _]]. rewrite En, Ek. cbn [next_naming]. split.
  - rewrite index_for_rcurrent_embed. destruct (index_for_rcurrent c w (Some idx) true) as [[idx'| |] w1]; reflexivity.
  - intros infix w1 ns1. destruct (index_for_rcurrent c w (Some idx) true) as [[idx'| |] w0]; try discriminate.
    intros E. injection E as <- <- <-. split; [rewrite cname_name_of; exact cname_own|]. intros w' cur. apply cleanup_impl_embed.
Qed.

Lemma mount_next_good w st force r w' st' : good_inner st -> mount_next c w st force = (r, w', st') -> good_inner st'.
Proof.
  apply (mount_next_kind (fun ns => exists idx, ns = NSNumR idx) (fun k b => k = kc /\ b = false)).
  intros w0 ns r1 w1 ns1 [idx ->]. cbn [next_naming].
  destruct (index_for_rcurrent c w0 (Some idx) true) as [[idx'| |] w2]; intros H; injection H as _ _ <-; eauto.
Qed.

Definition good_flw (s : flw) : Prop := f_cfg s = c /\ f_poisoned s = false /\ good_inner (f_inner s).

Lemma write_buffer_embed s w b : good_flw s ->
  write_buffer (embeds s) (embedw w) b = lwb (write_buffer s w b).
Proof.
  intros [Ec [Hp G]]. apply (write_buffer_embed_pt c); [exact Ec | intros _; apply initialize_embed |].
  intros w0 st0 H. apply mount_next_embed. destruct (f_inner s) as [|o wr path] eqn:Ei.
  - destruct (initialize c w) as [[i| |] w'] eqn:E; try discriminate. injection H as <- <-. eapply initialize_good; eassumption.
  - injection H as <- <-. exact G.
Qed.

Lemma write_buffer_good s w b r w' s' rot : good_flw s -> write_buffer s w b = (r, w', s', rot) -> r <> Panic ->
  good_flw s'.
Proof.
  intros [Ec [Hp G]]. destruct s as [c0 st p]. cbn [f_cfg f_inner f_poisoned] in *. subst c0 p.
  unfold write_buffer. cbn [f_cfg f_inner f_poisoned].
  match goal with |- (match ?X with _ => _ end) = _ -> _ => set (X0 := X) end.
  assert (G0 : forall r0 w0 st0, X0 = (r0, w0, st0) -> good_inner st0).
  { subst X0. destruct st as [|o wr path].
    - destruct (initialize c w) as [r1 w1] eqn:Ei.
      destruct r1 as [i| |]; intros r0 w0 st0 H; injection H as _ _ <-; try exact Logic.I.
      eapply initialize_good; eassumption.
    - intros r0 w0 st0 H; injection H as _ _ <-. exact G. }
  clearbody X0. destruct X0 as [[r0 w0] st0].
  specialize (G0 r0 w0 st0 eq_refl).
  destruct r0 as [u| |].
  - destruct (mount_next c w0 st0 false) as [[r1 w1] st1] eqn:Em. pose proof (mount_next_good _ _ _ _ _ _ G0 Em) as G1.
    assert (X : forall o_rot wr path, good_inner (Active o_rot wr path) -> forall b0 wr0,
              good_inner (Active (match o_rot with
                                  | Some rs => Some {| rs_naming := rs_naming rs; rs_roll := increase_size (rs_roll rs) b0;
                                                       rs_cleanup := rs_cleanup rs; rs_bg := rs_bg rs |}
                                  | None => None end) wr0 path) /\ good_inner (Active o_rot wr0 path)).
    { intros [rs|] wr path H b0 wr0; split; cbn in *; auto. }
    destruct r1 as [u1| |].
    + destruct st1 as [|o_rot wr path].
      * intros H _. injection H as _ _ <- _. repeat split.
      * destruct (w_write w1 wr b) as [[ok w3] wr']. destruct ok; intros H _; injection H as _ _ <- _;
          (split; [reflexivity|]; split; [reflexivity|]); cbn [with_inner f_inner];
          [exact (proj1 (X o_rot wr path G1 _ _)) | exact (proj2 (X o_rot wr path G1 0%N _))].
    + destruct st1 as [|o_rot wr path].
      * intros H _. injection H as _ _ <- _. repeat split.
      * destruct (w_write (report ELogFile w1) wr b) as [[ok w3] wr']. destruct ok; intros H _; injection H as _ _ <- _;
          (split; [reflexivity|]; split; [reflexivity|]); cbn [with_inner f_inner];
          [exact (proj1 (X o_rot wr path G1 _ _)) | exact (proj2 (X o_rot wr path G1 0%N _))].
    + intros H Hr. injection H as <- _ _ _. congruence.
  - intros H _. injection H as _ _ <- _. repeat split. exact G0.
  - intros H Hr. injection H as <- _ _ _. congruence.
Qed.

End Cfg.
End EmbedModel.
