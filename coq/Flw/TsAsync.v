(* Timestamps naming (r<time stamp>[.restart-NNNN] for the closed files, rCURRENT for the file being written): the write
   mode - Direct, BufWriter of any capacity, asynchronous with either - does not change WHAT is written NOR UNDER WHICH
   NAMES (C15), and after flush() / after the drop of the writer nothing accepted stays behind in a buffer (C04).

   The development of TsRun.v / TsTheorems.v proves the stream theorem: it states the existence of keys (second, position
   within the second) that name the closed files, and it does not follow the size of the current file.  To compare two
   runs both have to be KNOWN.  Part A: the invariant RelTK = RelT of TsRun.v with the keys and the time stamp of the
   current file exposed and, for a size criterion, the roll state tied to the length of the current file (TsInv.v gives
   the roll state after a rotation and after the initialisation); the keys as a function of the history - kt_step / kt_run (driven by the rotation
   flags), kts_run (size criterion: the greedy rule decides).  TsPartition.v has the partition theorem and the rotation
   flags for the synchronous modes already; here the keys are added.  Part B: any mode, through AsyncSim.v /
   AsyncTransfer.v.

   A closed file carries the second in which it was STARTED (the creation time stamp of rCURRENT, kept in the naming state);
   the file that is started by a rotation gets the second of that rotation.  In asynchronous mode the rotation happens when
   the writer thread handles the message; under the scheduling assumption of the model and of the test harness (every
   message is consumed before the next operation starts) that is the same instant of the model clock. *)
Require Import FL.Base.Bytes FL.Base.BytesFacts FL.Base.PathName FL.Fs.Fs FL.Fs.FsFacts FL.Time.Civil FL.Time.TsFormat
  FL.Names.FileSpec FL.Names.NamesFacts FL.Names.SortFacts FL.Flw.Model FL.Flw.ModelFacts FL.Flw.QuietFacts FL.Flw.NumFs FL.Flw.NumInv FL.Flw.Run
  FL.Flw.RunFacts FL.Flw.NumRun FL.Oracles.O_Flw FL.Flw.NumTheorems FL.Flw.NumListing FL.Flw.NumRestart FL.Flw.NumKillRestart
  FL.Flw.NumDInv FL.Flw.NumDRun FL.Flw.NumDTheorems
  FL.Flw.TsCal FL.Flw.TsTime FL.Flw.TsMono FL.Flw.TsNames FL.Flw.TsInv FL.Flw.TsRun FL.Flw.TsTheorems FL.Flw.TsdInv FL.Flw.TsdRun
  FL.Flw.TsReader FL.Flw.TsdTheorems FL.Flw.TsPartition FL.Flw.NoPanic FL.Flw.NumAsync FL.Flw.AsyncSim FL.Flw.AsyncTransfer FL.Flw.NumDAsync
  FL.Flw.TsdAsync.
From Coq Require Import ZifyN ZifyNat ZifyBool.
Import String.StringSyntax.
Open Scope nat_scope.

Lemma tick_fs w fl w1 : tick w = (fl, w1) -> wfs w1 = wfs w.
Proof. unfold tick. destruct (wfaults w); intros E; injection E as _ <-; reflexivity. Qed.

(* ================================================================== Part A: keys, time stamp, size *)
(* one operation: (ks, ts) are the keys of the closed files and the time stamp that the current file will get when it is
   closed; a the abstract view before the operation, rot the rotation decision of a write, now the clock *)
Definition kt_step (st : list key * Z) (a : aview) (o : op) (rot : bool) (now : Z) : list key * Z :=
  match o with
  | OWrite _ | OPlain _ =>
    let '(ks0, ts0) := match a with Some _ => st | None => ([], now) end in
    if rot then (ks0 ++ [(ts0, count ts0 ks0)], now) else (ks0, ts0)
  | OTrigger => match a with Some _ => (fst st ++ [(snd st, count (snd st) (fst st))], now) | None => st end
  | _ => st
  end.

Fixpoint kt_run (st : list key * Z) (a : aview) (now : Z) (ops : list op) (obs : list obs) : list key * Z :=
  match ops, obs with
  | o :: r, ob :: robs => kt_run (kt_step st a o (rot_of ob) now) (a_step a o (rot_of ob)) (now + dt_of o)%Z r robs
  | _, _ => st
  end.

Fixpoint kts_run (m : N) (st : list key * Z) (a : aview) (now : Z) (ops : list op) : list key * Z :=
  match ops with
  | o :: r => let rot := (m <? N.of_nat (length (cur_of a)))%N in
              kts_run m (kt_step st a o rot now) (a_step a o rot) (now + dt_of o)%Z r
  | [] => st
  end.

(* the keys of the closed files of a whole run that starts at t0 on an empty directory *)
Definition ts_keys (m : N) (t0 : Z) (ops : list op) : list key := fst (kts_run m ([], t0) None t0 ops).

(* ------------------------------------------------------------------ a write on an active writer: keys, time stamp, size *)
Lemma write_active_ts_k c crit e lo hi w wr keys closed ts roll b :
  tscfg c crit -> tag_ok c -> years_ok e lo hi -> TsInv c e lo w wr keys closed ts ->
  (wnow w <= hi)%Z -> (N.of_nat (length closed) <= usize_max)%N ->
  (forall m, crit = CSize m -> roll = RSize m (N.of_nat (length (cur_view w wr)))) ->
  let rot := rotation_necessary w roll in
  let keys' := if rot then keys ++ [(ts, count ts keys)] else keys in
  let ts' := if rot then wnow w else ts in
  exists w' wr' roll' closed',
    write_buffer (st_ts c ts roll wr) w b = (Ok tt, w', st_ts c ts' roll' wr', rot)
    /\ TsInv c e lo w' wr' keys' closed' ts' /\ same_env w w'
    /\ (closed', cur_view w' wr') = (if rot then (closed ++ [cur_view w wr], b) else (closed, cur_view w wr ++ b))
    /\ (forall m, crit = CSize m -> roll' = RSize m (N.of_nat (length (cur_view w' wr')))).
Proof.
  intros Hcfg T Y I Hhi Hmax RS rot keys' ts'.
  destruct (write_buffer_ts c crit e lo hi w wr keys closed ts roll b Hcfg T Y I Hhi Hmax) as [w' [wr' [E [I' [_ [S' V']]]]]].
  fold rot in E, I', V'.
  eexists w', wr', _, _. split; [exact E|]. split; [exact I'|]. split; [exact S'|].
  split; [rewrite V'; destruct rot; reflexivity|].
  intros m Hm. rewrite V', (RS m Hm). destruct rot; cbn [reset_roll increase_size]; rewrite ?app_length; f_equal; lia.
Qed.

(* ------------------------------------------------------------------ the invariant with keys, time stamp and size *)
Definition RelTK (c : config) (crit : criterion) (e lo : Z) (n : nat) (x : sys) (a : aview) (ks : list key) (ts : Z) : Prop :=
  s_tl x = [] /\ wacts (s_w x) = 0 /\
  match a with
  | None => ks = [] /\ s_flw x = Some (new_flw c) /\ quiet (s_w x) /\ names (wfs (s_w x)) = [] /\ inodes (wfs (s_w x)) = []
            /\ eoff c (s_w x) = e /\ (lo <= wnow (s_w x))%Z
  | Some (closed, cur) =>
    exists wr roll, s_flw x = Some (st_ts c ts roll wr) /\ TsInv c e lo (s_w x) wr ks closed ts
      /\ cur_view (s_w x) wr = cur /\ length closed <= n
      /\ (forall m, crit = CSize m -> roll = RSize m (N.of_nat (length cur)))
  end.

Lemma reltk_relt c crit e lo n x a ks ts : RelTK c crit e lo n x a ks ts -> RelT c e lo n x a.
Proof.
  intros [Ht [Ha R]]. split; [exact Ht|]. split; [exact Ha|]. destruct a as [[closed cur]|].
  - destruct R as [wr [roll [Es [I [V [Hn _]]]]]]. exists ks, wr, roll, ts. auto.
  - apply R.
Qed.

Lemma reltk_quiet c crit e lo n x a ks ts : RelTK c crit e lo n x a ks ts -> quiet (s_w x).
Proof. intros [_ [_ R]]. destruct a as [[cl cu]|]; [destruct R as [wr [roll [_ [I _]]]]; apply I | apply R]. Qed.

Lemma RelTK_mono c crit e lo n x a ks ts : RelTK c crit e lo n x a ks ts -> RelTK c crit e lo (S n) x a ks ts.
Proof.
  intros [Ht [Ha R]]. split; [exact Ht|]. split; [exact Ha|]. destruct a as [[closed cur]|]; [|exact R].
  destruct R as [wr [roll [Es [I [V [Hn ZR]]]]]]. exists wr, roll.
  split; [exact Es|]. split; [exact I|]. split; [exact V|]. split; [lia | exact ZR].
Qed.

Lemma start_rel_ts_k c crit t0 off ts : RelTK c crit (ts_e c off) t0 0 (fst (step (sys0 t0 off) (OStart c))) None [] ts.
Proof. cbn. repeat split. cbn. lia. Qed.

(* what a write does, from either kind of state *)
Lemma write_rel_ts_k c crit e lo hi n x a ks ts b :
  tscfg c crit -> tag_ok c -> years_ok e lo hi -> RelTK c crit e lo n x a ks ts ->
  (wnow (s_w x) <= hi)%Z -> (N.of_nat n <= usize_max)%N ->
  exists s w' s' rot, s_flw x = Some s /\ f_poisoned s = false /\
    write_buffer s (s_w x) b = (Ok tt, w', s', rot)
    /\ RelTK c crit e lo (S n) {| s_flw := Some s'; s_w := w'; s_tl := []; s_dead := s_dead x |} (a_step a (OWrite b) rot)
             (fst (kt_step (ks, ts) a (OWrite b) rot (wnow (s_w x)))) (snd (kt_step (ks, ts) a (OWrite b) rot (wnow (s_w x))))
    /\ wnow w' = wnow (s_w x)
    /\ (forall m, crit = CSize m -> rot = (m <? N.of_nat (length (cur_of a)))%N).
Proof.
  intros Hcfg T Y [Ht [Ha R]] Hhi Hmax. destruct a as [[closed cur]|].
  - destruct R as [wr [roll [Es [I [V [Hn RS]]]]]].
    rewrite <- V in RS.
    destruct (write_active_ts_k c crit e lo hi (s_w x) wr ks closed ts roll b Hcfg T Y I Hhi ltac:(lia) RS)
      as [w' [wr' [roll' [closed' [E [I' [S' [V' R']]]]]]]].
    cbv zeta in E, I'.
    exists (st_ts c ts roll wr), w'. eexists. exists (rotation_necessary (s_w x) roll).
    split; [exact Es|]. split; [reflexivity|]. split; [exact E|].
    split; [|split; [exact (same_env_now _ _ S')|]].
    + split; [reflexivity|]. split; [cbn [s_w]; exact (same_env_acts _ _ S' Ha)|].
      cbn [a_step kt_step]. rewrite V in V'.
      destruct (rotation_necessary (s_w x) roll); cbn [fst snd]; injection V' as -> V''; (exists wr', roll'; cbn [s_flw s_w];
        split; [reflexivity|]; split; [exact I'|]; split; [exact V''|]; split; [rewrite ?app_length; cbn [length]; lia|];
        rewrite <- V''; exact R').
    + intros m Hm. rewrite (RS m Hm). cbn [rotation_necessary size_rotation_necessary cur_of]. rewrite V. reflexivity.
  - destruct R as [-> [Es [Q [Hn [Hi [Hoff Hlo]]]]]].
    destruct (initialize_ts_empty c crit e lo (s_w x) Hcfg Q Hn Hi Hoff Hlo) as [w1 [wr [Ei [[I _] [V S1]]]]].
    set (roll := roll_of crit 0 (wnow (s_w x))) in *.
    assert (RS0 : forall m, crit = CSize m -> roll = RSize m 0%N) by (intros m ->; reflexivity).
    assert (Hnow1 : wnow w1 = wnow (s_w x)) by exact (same_env_now _ _ S1).
    assert (Hhi1 : (wnow w1 <= hi)%Z) by (rewrite Hnow1; exact Hhi).
    assert (RS1 : forall m, crit = CSize m -> roll = RSize m (N.of_nat (length (cur_view w1 wr)))).
    { intros m Hm. rewrite V. exact (RS0 m Hm). }
    destruct (write_active_ts_k c crit e lo hi w1 wr [] [] (wnow (s_w x)) roll b Hcfg T Y I Hhi1 ltac:(cbn; lia) RS1)
      as [w' [wr' [roll' [closed' [E [I' [S' [V' R']]]]]]]].
    cbv zeta in E, I'. rewrite Hnow1 in E, I'.
    exists (new_flw c), w'. eexists. exists (rotation_necessary w1 roll).
    split; [exact Es|]. split; [reflexivity|].
    split. { rewrite (write_buffer_init c (s_w x) b _ _ _ w1 Ei). exact E. }
    split; [|split; [rewrite (same_env_now _ _ S'); exact Hnow1|]].
    + split; [reflexivity|]. split; [cbn [s_w]; exact (same_env_acts _ _ (same_env_trans _ _ _ S1 S') Ha)|].
      cbn [a_step kt_step]. rewrite V in V'. cbn [app] in V'.
      destruct (rotation_necessary w1 roll); cbn [fst snd]; injection V' as -> V''; (exists wr', roll'; cbn [s_flw s_w];
        split; [reflexivity|]; split; [exact I'|]; split; [exact V''|]; split; [cbn [app length]; lia|];
        rewrite <- V''; exact R').
    + intros m Hm. rewrite (RS0 m Hm). reflexivity.
Qed.

(* one basic operation *)
Lemma step_rel_ts_k c crit e lo hi n x a ks ts o :
  tscfg c crit -> tag_ok c -> years_ok e lo hi -> RelTK c crit e lo n x a ks ts -> basic_op o -> tick_ok o ->
  (wnow (s_w x) <= hi)%Z -> (N.of_nat n <= usize_max)%N ->
  let '(x', ob) := step x o in
  RelTK c crit e lo (S n) x' (a_step a o (rot_of ob))
        (fst (kt_step (ks, ts) a o (rot_of ob) (wnow (s_w x)))) (snd (kt_step (ks, ts) a o (rot_of ob) (wnow (s_w x))))
  /\ wnow (s_w x') = (wnow (s_w x) + dt_of o)%Z
  /\ (forall b m, (o = OWrite b \/ o = OPlain b) -> crit = CSize m ->
        ob = ObsRes 0 (m <? N.of_nat (length (cur_of a)))%N).
Proof.
  intros Hcfg T Y R Hb Htk Hhi Hmax.
  rewrite (step_sync_rel_ts c crit e lo n x a o Hcfg (reltk_relt _ _ _ _ _ _ _ _ _ R)).
  destruct o; try contradiction; cbn [sync_step dt_of].
  - (* OWrite *)
    destruct (write_rel_ts_k c crit e lo hi n x a ks ts b Hcfg T Y R Hhi Hmax) as [s [w' [s' [rot [Es [Hp [E [R' [Hw C]]]]]]]]].
    rewrite Es, Hp. rewrite (proj1 R). cbn [app]. rewrite E. cbn [rot_of s_w]. split; [exact R'|]. split; [lia|].
    intros b0 m _ Hm. rewrite (C m Hm). reflexivity.
  - (* OPlain *)
    destruct (write_rel_ts_k c crit e lo hi n x a ks ts b Hcfg T Y R Hhi Hmax) as [s [w' [s' [rot [Es [Hp [E [R' [Hw C]]]]]]]]].
    rewrite Es, Hp, E. cbn [rot_of code_of s_w]. rewrite (proj1 R). split; [exact R'|]. split; [lia|].
    intros b0 m _ Hm. rewrite (C m Hm). reflexivity.
  - (* OFlush *)
    destruct R as [Ht [Ha R]]. destruct a as [[closed cur]|].
    + destruct R as [wr [roll [Es [I [V [Hn ZR]]]]]]. rewrite Es. cbn [st_ts f_poisoned].
      destruct (flush_active_ts c e lo (s_w x) wr ks closed ts roll I) as [w' [wr' [E [I' [V' [P' S']]]]]].
      fold (st_ts c ts roll wr). rewrite E. cbn [rot_of a_step kt_step fst snd s_w].
      split; [|split; [rewrite (same_env_now _ _ S'); lia | intros b m [H|H]; discriminate]].
      split; [exact Ht|]. split; [exact (same_env_acts _ _ S' Ha)|]. exists wr', roll. cbn [s_flw s_w].
      split; [reflexivity|]. split; [exact I'|]. split; [congruence|]. split; [lia | exact ZR].
    + destruct R as [Ek [Es R]]. rewrite Es. cbn [new_flw f_poisoned flush_state f_inner rot_of a_step kt_step fst snd s_w].
      split; [|split; [lia | intros b m [H|H]; discriminate]].
      split; [exact Ht|]. split; [exact Ha|]. split; [exact Ek|]. split; [reflexivity | exact R].
  - (* OTrigger *)
    destruct R as [Ht [Ha R]]. destruct a as [[closed cur]|].
    + destruct R as [wr [roll [Es [I [V [Hn RS]]]]]]. rewrite Es. cbn [st_ts f_poisoned f_cfg f_inner].
      destruct (mount_next_ts c crit e lo hi (s_w x) wr ks closed ts roll true Hcfg T Y I Hhi ltac:(lia) eq_refl)
        as [w' [wr' [E [[I' _] [V' S']]]]].
      rewrite E. cbn [rot_of a_step kt_step fst snd code_of with_inner f_cfg f_poisoned s_w].
      split; [|split; [rewrite (same_env_now _ _ S'); lia | intros b m [H|H]; discriminate]].
      split; [exact Ht|]. split; [exact (same_env_acts _ _ S' Ha)|]. rewrite V in *.
      eexists wr', _. cbn [s_flw s_w].
      split; [reflexivity|]. split; [exact I'|]. split; [exact V'|]. split; [rewrite app_length; cbn [length]; lia|].
      intros m Hm. rewrite (RS m Hm). reflexivity.
    + destruct R as [Ek [Es R]]. rewrite Es. cbn [new_flw f_poisoned f_cfg f_inner mount_next with_inner rot_of a_step kt_step fst snd code_of s_w].
      split; [|split; [lia | intros b m [H|H]; discriminate]].
      split; [exact Ht|]. split; [exact Ha|]. split; [exact Ek|]. split; [reflexivity | exact R].
  - (* OTick *)
    cbn [rot_of a_step kt_step fst snd s_w set_now wnow tick_ok] in *. split; [|split; [reflexivity | intros b m [H|H]; discriminate]].
    destruct R as [Ht [Ha R]]. split; [exact Ht|]. split; [exact Ha|]. destruct a as [[closed cur]|].
    + destruct R as [wr [roll [Es [I [V [Hn ZR]]]]]]. exists wr, roll. cbn [s_flw s_w].
      split; [exact Es|]. split; [apply tsinv_tick; assumption|]. split; [exact V|]. split; [lia | exact ZR].
    + cbn [s_flw s_w]. destruct R as [Ek [Es [Q [Hn [Hi [Hoff Hlo]]]]]]. repeat split; try assumption; try apply Q. cbn [set_now wnow]. lia.
  - (* OSnap *)
    cbn [rot_of a_step kt_step fst snd]. split; [apply RelTK_mono; exact R|]. split; [lia | intros b m [H|H]; discriminate].
Qed.

Lemma kt_step_eta st a o rot now : kt_step st a o rot now = kt_step (fst st, snd st) a o rot now.
Proof. destruct st; reflexivity. Qed.

(* a history *)
Lemma run_rel_ts_k c crit e lo hi : tscfg c crit -> tag_ok c -> years_ok e lo hi ->
  forall ops x a st n, RelTK c crit e lo n x a (fst st) (snd st) -> Forall basic_op ops -> Forall tick_ok ops ->
  (wnow (s_w x) + elapsed ops <= hi)%Z -> (N.of_nat (n + length ops) <= usize_max)%N ->
  let st' := kt_run st a (wnow (s_w x)) ops (snd (run x ops)) in
  RelTK c crit e lo (n + length ops) (fst (run x ops)) (a_run a ops (snd (run x ops))) (fst st') (snd st')
  /\ wnow (s_w (fst (run x ops))) = (wnow (s_w x) + elapsed ops)%Z
  /\ (forall m, crit = CSize m ->
        a_run a ops (snd (run x ops)) = s_run m a ops
        /\ st' = kts_run m st a (wnow (s_w x)) ops
        /\ (forall i o, nth_error ops i = Some o -> forall b, (o = OWrite b \/ o = OPlain b) ->
              nth_error (snd (run x ops)) i = Some (ObsRes 0 (m <? N.of_nat (length (cur_of (s_run m a (firstn i ops)))))%N))).
Proof.
  intros Hcfg T Y. induction ops as [|o r IH]; intros x a st n R Hb Htk Hhi Hmax.
  - cbn [run fst snd a_run kt_run length elapsed]. rewrite Nat.add_0_r. split; [exact R|]. split; [lia|].
    intros m _. split; [reflexivity|]. split; [reflexivity|]. intros i o H. destruct i; discriminate.
  - cbn [run]. inversion Hb as [|o' r' Ho Hr]; subst. inversion Htk as [|o' r' Hto Htr]; subst.
    cbn [elapsed length] in *. pose proof (elapsed_nonneg r Htr) as Er.
    assert (Hdt : (0 <= dt_of o)%Z) by (destruct o; cbn [dt_of tick_ok] in *; lia).
    pose proof (step_rel_ts_k c crit e lo hi n x a (fst st) (snd st) o Hcfg T Y R Ho Hto ltac:(lia) ltac:(lia)) as S.
    destruct (step x o) as [x1 ob]. destruct S as [R1 [W1 C1]]. rewrite <- kt_step_eta in R1.
    specialize (IH x1 _ _ (S n) R1 Hr Htr ltac:(lia) ltac:(lia)). destruct (run x1 r) as [x2 obs].
    cbn [fst snd a_run kt_run] in *. replace (n + S (length r)) with (S n + length r) by lia. cbv zeta in IH. destruct IH as [IH1 [IH2 IH3]].
    rewrite W1 in IH1, IH3.
    split; [exact IH1|]. split; [lia|].
    intros m Hm. destruct (IH3 m Hm) as [IHa [IHb IHc]].
    assert (Erot : rot_of ob = (m <? N.of_nat (length (cur_of a)))%N
                   \/ (a_step a o (rot_of ob) = a_step a o (m <? N.of_nat (length (cur_of a)))%N
                       /\ kt_step st a o (rot_of ob) (wnow (s_w x)) = kt_step st a o (m <? N.of_nat (length (cur_of a)))%N (wnow (s_w x)))).
    { destruct o; try (right; split; reflexivity).
      - left. rewrite (C1 b m (or_introl eq_refl) Hm). reflexivity.
      - left. rewrite (C1 b m (or_intror eq_refl) Hm). reflexivity. }
    assert (Ea : a_step a o (rot_of ob) = a_step a o (m <? N.of_nat (length (cur_of a)))%N
                 /\ kt_step st a o (rot_of ob) (wnow (s_w x)) = kt_step st a o (m <? N.of_nat (length (cur_of a)))%N (wnow (s_w x))).
    { destruct Erot as [->|H]; [split; reflexivity | exact H]. }
    destruct Ea as [Ea Ek]. cbn [s_run kts_run]. rewrite <- Ea, <- Ek. split; [exact IHa|]. split; [exact IHb|].
    intros i o0 Hi b Hw. destruct i as [|i].
    + cbn in Hi. injection Hi as <-. cbn [nth_error firstn s_run]. f_equal. apply (C1 b m Hw Hm).
    + cbn [nth_error firstn s_run] in *. rewrite <- Ea. apply (IHc i o0 Hi b Hw).
Qed.

(* ------------------------------------------------------------------ what the reader finds *)
(* the directory as the abstract view a under the keys ks: empty, or the closed files and rCURRENT *)
Definition ts_dir (c : config) (e : Z) (f : fs) (ks : list key) (a : aview) : Prop :=
  match a with
  | None => names f = [] /\ ks = []
  | Some (closed, cur) => ts_view c e f ks closed cur
  end.

Lemma tsinv_view c e lo w wr keys closed ts : TsInv c e lo w wr keys closed ts -> wpend wr = [] ->
  ts_view c e (wfs w) keys closed (cur_view w wr).
Proof.
  intros [Q W Hnd Hoff Hc Hcp Hlen Hcl Hon Hko Hrg Htsr Hwr Hcap] P.
  split; [exact Hlen|]. split.
  { intros i Hi. destruct (Hcl i Hi) as [j [Lj [Pj [Cj _]]]]. eauto. }
  split; [|split; [exact Hon | exact Hnd]].
  exists (wino wr). split; [exact Hc|]. split; [exact Hcp|]. unfold cur_view. rewrite P, app_nil_r. reflexivity.
Qed.

Lemma reltk_view c crit e lo n x a ks ts : RelTK c crit e lo n x a ks ts -> pending x = [] ->
  ts_dir c e (wfs (s_w x)) ks a /\ keys_ok ks /\ (forall k, In k ks -> (lo <= fst k <= wnow (s_w x))%Z).
Proof.
  intros [_ [_ R]] P. destruct a as [[closed cur]|]; cbn [ts_dir].
  - destruct R as [wr [roll [Es [I [V _]]]]]. rewrite (pending_active _ _ _ wr _ Es eq_refl) in P.
    split; [rewrite <- V; apply (tsinv_view c e lo _ _ _ _ ts); assumption|].
    split; [exact (ti_keys _ _ _ _ _ _ _ _ I)|].
    intros k Ik. pose proof (ti_range _ _ _ _ _ _ _ _ I k Ik). pose proof (ti_ts _ _ _ _ _ _ _ _ I). lia.
  - destruct R as [-> [_ [_ [Hn _]]]]. split; [split; [exact Hn | reflexivity]|]. split; [constructor | intros k []].
Qed.

(* a flush: the relation is kept, nothing is pending afterwards *)
Lemma flush_rel_ts_k c crit e lo n x a ks ts : tscfg c crit -> RelTK c crit e lo n x a ks ts ->
  RelTK c crit e lo n (fst (step x OFlush)) a ks ts /\ pending (fst (step x OFlush)) = []
  /\ wnow (s_w (fst (step x OFlush))) = wnow (s_w x).
Proof.
  intros Hcfg R0. rewrite (step_sync_rel_ts c crit e lo n x a OFlush Hcfg (reltk_relt _ _ _ _ _ _ _ _ _ R0)). cbn [sync_step].
  destruct R0 as [Ht [Ha R]]. destruct a as [[closed cur]|].
  - destruct R as [wr [roll [Es [I [V [Hn ZR]]]]]]. rewrite Es. cbn [st_ts f_poisoned].
    destruct (flush_active_ts c e lo (s_w x) wr ks closed ts roll I) as [w' [wr' [E [I' [V' [P' S']]]]]].
    fold (st_ts c ts roll wr). rewrite E. cbn [fst s_w]. split; [|split].
    + split; [exact Ht|]. split; [exact (same_env_acts _ _ S' Ha)|]. exists wr', roll. cbn [s_flw s_w].
      split; [reflexivity|]. split; [exact I'|]. split; [congruence|]. split; [exact Hn | exact ZR].
    + erewrite pending_active by reflexivity. exact P'.
    + exact (same_env_now _ _ S').
  - destruct R as [Ek [Es R]]. rewrite Es. cbn [new_flw f_poisoned flush_state f_inner fst s_w]. split; [|split].
    + split; [exact Ht|]. split; [exact Ha|]. split; [exact Ek|]. split; [reflexivity | exact R].
    + apply (pending_initial _ c); reflexivity.
    + reflexivity.
Qed.

(* the drop of the writer *)
Lemma stop_rel_ts_k c crit e lo n x a ks ts : tscfg c crit -> RelTK c crit e lo n x a ks ts ->
  let x' := fst (step x OStop) in
  ts_dir c e (wfs (s_w x')) ks a /\ keys_ok ks /\ (forall k, In k ks -> (lo <= fst k <= wnow (s_w x))%Z)
  /\ s_flw x' = None.
Proof.
  intros Hcfg R0. cbn zeta. rewrite (step_sync_rel_ts c crit e lo n x a OStop Hcfg (reltk_relt _ _ _ _ _ _ _ _ _ R0)).
  destruct R0 as [Ht [Ha R]]. cbn [sync_step]. destruct a as [[closed cur]|]; cbn [ts_dir].
  - destruct R as [wr [roll [Es [I [V _]]]]]. rewrite Es. unfold st_ts. cbn [f_poisoned].
    pose proof (ti_quiet _ _ _ _ _ _ _ _ I) as Q. rewrite drop_state_quiet by exact Q. cbn [s_w s_flw fst].
    destruct (tsinv_append c e lo (s_w x) (flushed (s_w x) wr) wr (emptied wr) ks closed ts (wpend wr) I (flushed_fs _ wr)
                (flushed_env _ wr Q) eq_refl eq_refl (wr_ok_nil _ _)) as [I1 C1].
    assert (V1 : cur_view (flushed (s_w x) wr) (emptied wr) = cur).
    { rewrite <- V. unfold cur_view. rewrite C1. cbn [emptied wpend]. apply app_nil_r. }
    split; [rewrite <- V1; apply (tsinv_view c e lo _ _ _ _ ts); [exact I1 | reflexivity]|].
    split; [exact (ti_keys _ _ _ _ _ _ _ _ I)|]. split; [|reflexivity].
    intros k Ik. pose proof (ti_range _ _ _ _ _ _ _ _ I k Ik). pose proof (ti_ts _ _ _ _ _ _ _ _ I). lia.
  - destruct R as [-> [Es [Q [Hn Hi]]]]. rewrite Es. cbn [new_flw f_poisoned drop_state shutdown_state f_inner s_w s_flw fst].
    split; [split; [exact Hn | reflexivity]|]. split; [constructor|]. split; [intros k [] | reflexivity].
Qed.

(* ------------------------------------------------------------------ whole runs, synchronous modes *)
Section SyncRuns.
Variables (c : config) (crit : criterion) (t0 off : Z) (ops : list op).
Hypothesis Hcfg : tscfg c crit.
Hypothesis T : tag_ok c.
Hypothesis Hb : Forall basic_op ops.
Hypothesis Htk : Forall tick_ok ops.
Hypothesis Hlo : (0 <= t0 + ts_e c off)%Z.
Hypothesis Hhi : (t0 + elapsed ops + ts_e c off < sec_max)%Z.
Hypothesis Hmax : (N.of_nat (length ops) <= usize_max)%N.

(* the state after the history *)
Lemma ts_run_k :
  exists x0 ob0, step (sys0 t0 off) (OStart c) = (x0, ob0) /\ ob0 = ObsRes 0%N false /\
    let x1 := fst (run x0 ops) in
    let a := a_run None ops (snd (run x0 ops)) in
    let st := kt_run ([], t0) None t0 ops (snd (run x0 ops)) in
    RelTK c crit (ts_e c off) t0 (length ops) x1 a (fst st) (snd st)
    /\ wnow (s_w x1) = (t0 + elapsed ops)%Z
    /\ Forall obs_ok (snd (run x0 ops))
    /\ flat a = written ops
    /\ (forall m, crit = CSize m ->
          a = s_run m None ops /\ fst st = ts_keys m t0 ops
          /\ (forall i o, nth_error ops i = Some o -> forall b, (o = OWrite b \/ o = OPlain b) ->
                nth_error (snd (run x0 ops)) i = Some (ObsRes 0 (m <? N.of_nat (length (cur_of (s_run m None (firstn i ops)))))%N))).
Proof.
  destruct (step (sys0 t0 off) (OStart c)) as [x0 ob0] eqn:E0.
  exists x0, ob0. split; [reflexivity|]. split; [cbn in E0; injection E0 as _ <-; reflexivity|].
  pose proof (start_rel_ts_k c crit t0 off t0) as R0. rewrite E0 in R0. cbn [fst] in R0.
  pose proof (start_rel_ts c t0 off) as R0'. rewrite E0 in R0'. cbn [fst] in R0'.
  assert (W0 : wnow (s_w x0) = t0) by (cbn in E0; injection E0 as <- _; reflexivity).
  assert (Y : years_ok (ts_e c off) t0 (t0 + elapsed ops)) by (split; assumption).
  pose proof (run_rel_ts_k c crit _ _ _ Hcfg T Y ops x0 None ([], t0) 0 R0 Hb Htk ltac:(lia) ltac:(cbn [Nat.add]; exact Hmax)) as H.
  pose proof (run_ok_ts c crit _ _ _ Hcfg T Y ops x0 None 0 R0' Hb Htk ltac:(lia) ltac:(cbn [Nat.add]; exact Hmax)) as K1.
  cbv zeta in H. destruct H as [R1 [W1 Z1]]. rewrite W0 in *. cbn [Nat.add] in R1. cbn zeta.
  split; [exact R1|]. split; [exact W1|]. split; [exact K1|].
  split. { pose proof (a_run_flat ops None (snd (run x0 ops)) Hb (run_length ops x0)) as F. cbn [flat app] in F. exact F. }
  intros m Hm. destruct (Z1 m Hm) as [Ea [Ek Ef]]. split; [exact Ea|]. split; [rewrite Ek; reflexivity | exact Ef].
Qed.

(* the hypotheses of the simulation *)
Lemma ts_sync_ok :
  Forall obs_ok (snd (run (sys0 t0 off) (OStart c :: ops))) /\ quiet (s_w (fst (run (sys0 t0 off) (OStart c :: ops)))).
Proof.
  destruct ts_run_k as [x0 [ob0 [E0 [Eob [R1 [_ [K1 _]]]]]]]. cbn [run]. rewrite E0.
  destruct (run x0 ops) as [x1 obs1]. cbn [fst snd] in *. subst ob0.
  split; [constructor; [reflexivity | exact K1] | exact (reltk_quiet _ _ _ _ _ _ _ _ _ R1)].
Qed.

(* after the drop of the writer: the closed files under their keys and rCURRENT; for a size criterion they hold the greedy
   partition (as in TsPartition.timestamps_partition), under the keys ts_keys m t0 ops *)
Theorem ts_stop_sync :
  let x := fst (run (sys0 t0 off) (OStart c :: ops ++ [OStop])) in
  exists keys a,
    ts_dir c (ts_e c off) (wfs (s_w x)) keys a /\ flat a = written ops
    /\ keys_ok keys /\ (forall k, In k keys -> (t0 <= fst k <= t0 + elapsed ops)%Z)
    /\ s_flw x = None
    /\ (forall m, crit = CSize m ->
          a = s_run m None ops /\ files_of a = expected_files m None (items false ops) /\ keys = ts_keys m t0 ops).
Proof.
  destruct ts_run_k as [x0 [ob0 [E0 [_ [R1 [W1 [_ [F Z]]]]]]]]. cbn zeta in *. cbn [run]. rewrite E0, run_app.
  destruct (run x0 ops) as [x1 obs1]. cbn [fst snd] in *.
  destruct (stop_rel_ts_k c crit _ _ _ x1 _ _ _ Hcfg R1) as [V [K [Rg Fl]]]. cbn [run]. destruct (step x1 OStop) as [x2 ob2]. cbn [fst] in *.
  eexists. eexists. split; [exact V|]. split; [exact F|]. split; [exact K|].
  split; [intros k Ik; specialize (Rg k Ik); lia|]. split; [exact Fl|].
  intros m Hm. destruct (Z m Hm) as [Ea [Ek _]]. split; [exact Ea|]. split; [rewrite Ea; apply s_run_none; exact Hb | exact Ek].
Qed.

(* after a flush *)
Theorem ts_flush_sync :
  let x := fst (run (sys0 t0 off) (OStart c :: ops ++ [OFlush])) in
  exists keys a,
    ts_dir c (ts_e c off) (wfs (s_w x)) keys a /\ flat a = written ops
    /\ keys_ok keys /\ (forall k, In k keys -> (t0 <= fst k <= t0 + elapsed ops)%Z)
    /\ pending x = []
    /\ (forall m, crit = CSize m ->
          a = s_run m None ops /\ files_of a = expected_files m None (items false ops) /\ keys = ts_keys m t0 ops).
Proof.
  destruct ts_run_k as [x0 [ob0 [E0 [_ [R1 [W1 [_ [F Z]]]]]]]]. cbn zeta in *. cbn [run]. rewrite E0, run_app.
  destruct (run x0 ops) as [x1 obs1]. cbn [fst snd] in *.
  destruct (flush_rel_ts_k c crit _ _ _ x1 _ _ _ Hcfg R1) as [R2 [P W2]]. cbn [run]. destruct (step x1 OFlush) as [x2 ob2]. cbn [fst] in *.
  destruct (reltk_view c crit _ _ _ x2 _ _ _ R2 P) as [V [K Rg]].
  eexists. eexists. split; [exact V|]. split; [exact F|]. split; [exact K|].
  split; [intros k Ik; specialize (Rg k Ik); lia|]. split; [exact P|].
  intros m Hm. destruct (Z m Hm) as [Ea [Ek _]]. split; [exact Ea|]. split; [rewrite Ea; apply s_run_none; exact Hb | exact Ek].
Qed.
End SyncRuns.

Print Assumptions ts_stop_sync.
Print Assumptions ts_flush_sync.

(* ================================================================== Part B: any mode *)
(* Timestamps naming, no cleanup, no start-time part, no symlink; ANY write mode; use_utc either way *)
Definition tsmcfg (c : config) (crit : criterion) : Prop :=
  c_rot c = Some (crit, NTimestamps, KNever) /\ fts (c_spec c) = false /\ c_symlink c = false.
Definition tsacfg (c : config) (crit : criterion) : Prop := tsmcfg c crit /\ c_async c = true.

Lemma tsmcfg_sync c crit : tsmcfg c crit -> tscfg (sync_of c) crit.
Proof. intros [H1 [H2 H3]]. repeat split; assumption. Qed.
Lemma tscfg_any c crit : tscfg c crit -> tsmcfg c crit.
Proof. intros [H1 [H2 [H3 _]]]. repeat split; assumption. Qed.
Lemma tsmcfg_mode c1 c2 crit : same_but_mode c1 c2 -> tsmcfg c1 crit -> tsmcfg c2 crit.
Proof. intros [S1 [_ [S3 [_ [S5 _]]]]] [H1 [H2 H3]]. repeat split; congruence. Qed.

Lemma same_mode_ts_dir c1 c2 e f keys a : same_but_mode c1 c2 -> ts_dir c1 e f keys a -> ts_dir c2 e f keys a.
Proof. intros Hm. unfold ts_dir, ts_view, kname, cname. rewrite (same_mode_nm c1 c2 Hm). exact (fun H => H). Qed.

Section AnyMode.
Variables (c : config) (crit : criterion) (t0 off : Z) (ops : list op).
Hypothesis Hcfg : tsmcfg c crit.
Hypothesis T : tag_ok c.
Hypothesis Hb : Forall basic_op ops.
Hypothesis Htk : Forall tick_ok ops.
Hypothesis Hlo : (0 <= t0 + ts_e c off)%Z.
Hypothesis Hhi : (t0 + elapsed ops + ts_e c off < sec_max)%Z.
Hypothesis Hmax : (N.of_nat (length ops) <= usize_max)%N.

Let Hs : tscfg (sync_of c) crit := tsmcfg_sync c crit Hcfg.

Lemma ts_ok_sync_of :
  Forall obs_ok (snd (run (sys0 t0 off) (OStart (sync_of c) :: ops)))
  /\ quiet (s_w (fst (run (sys0 t0 off) (OStart (sync_of c) :: ops)))).
Proof. exact (ts_sync_ok (sync_of c) crit t0 off ops Hs T Hb Htk Hlo Hhi Hmax). Qed.

Lemma ts_to_sync :
  let r := run (sys0 t0 off) (OStart c :: ops) in
  let rs := run (sys0 t0 off) (OStart (sync_of c) :: ops) in
  let r' := run (sys0 t0 off) (OStart c :: ops ++ [OStop]) in
  let rs' := run (sys0 t0 off) (OStart (sync_of c) :: ops ++ [OStop]) in
  s_w (fst r) = s_w (fst rs) /\ pending (fst r) = pending (fst rs) /\ s_w (fst r') = s_w (fst rs').
Proof. destruct ts_ok_sync_of as [K Q]. exact (to_sync c t0 off ops Hb K Q). Qed.

(* C04, drop of the writer (shutdown + drop of the last handle), any mode: the directory consists of the closed files
   under their keys and rCURRENT (ts_dir), their contents in this order are the bytes written; for a size criterion they are
   the greedy partition and the keys are ts_keys m t0 ops - functions of the history and the clock alone *)
Theorem ts_stop_durable :
  let x := fst (run (sys0 t0 off) (OStart c :: ops ++ [OStop])) in
  exists keys a,
    ts_dir c (ts_e c off) (wfs (s_w x)) keys a /\ flat a = written ops
    /\ keys_ok keys /\ (forall k, In k keys -> (t0 <= fst k <= t0 + elapsed ops)%Z)
    /\ pending x = [] /\ s_flw x = None
    /\ (forall m, crit = CSize m ->
          a = s_run m None ops /\ files_of a = expected_files m None (items false ops) /\ keys = ts_keys m t0 ops).
Proof.
  cbn zeta. destruct ts_to_sync as [_ [_ E]]. cbn zeta in E. rewrite E.
  destruct (ts_stop_sync (sync_of c) crit t0 off ops Hs T Hb Htk Hlo Hhi Hmax) as [keys [a [V [F [K [Rg [_ Z]]]]]]].
  exists keys, a. split; [exact V|]. split; [exact F|]. split; [exact K|]. split; [exact Rg|].
  pose proof (run_stop_flw (sys0 t0 off) (OStart c :: ops)) as Fl.
  split; [exact (pending_none _ Fl)|]. split; [exact Fl | exact Z].
Qed.
End AnyMode.

(* C04, flush, any mode.  Asynchronous mode: "after the flush" is after the writer thread has consumed the flush message -
   in the model and in the test harness that is before the next operation starts *)
Theorem ts_flush_durable c crit t0 off ops :
  tsmcfg c crit -> tag_ok c -> Forall basic_op ops -> Forall tick_ok ops ->
  (0 <= t0 + ts_e c off)%Z -> (t0 + elapsed ops + ts_e c off < sec_max)%Z -> (N.of_nat (S (length ops)) <= usize_max)%N ->
  let x := fst (run (sys0 t0 off) (OStart c :: ops ++ [OFlush])) in
  exists keys a,
    ts_dir c (ts_e c off) (wfs (s_w x)) keys a /\ flat a = written ops
    /\ keys_ok keys /\ (forall k, In k keys -> (t0 <= fst k <= t0 + elapsed ops)%Z)
    /\ pending x = []
    /\ (forall m, crit = CSize m ->
          a = s_run m None ops /\ files_of a = expected_files m None (items false ops) /\ keys = ts_keys m t0 ops).
Proof.
  intros Hcfg T Hb Htk Hlo Hhi Hmax. cbn zeta.
  assert (Hmax' : (N.of_nat (length (ops ++ [OFlush])) <= usize_max)%N) by (rewrite app_length; cbn [length]; lia).
  destruct (ts_to_sync c crit t0 off (ops ++ [OFlush]) Hcfg T (basic_snoc_flush ops Hb) (ticks_snoc_flush ops Htk) Hlo
              ltac:(rewrite elapsed_snoc_flush; exact Hhi) Hmax') as [E [P _]].
  cbn zeta in E, P. rewrite E, P.
  assert (Hmax0 : (N.of_nat (length ops) <= usize_max)%N) by lia.
  exact (ts_flush_sync (sync_of c) crit t0 off ops (tsmcfg_sync _ _ Hcfg) T Hb Htk Hlo Hhi Hmax0).
Qed.

(* C15: two configurations that differ in the write mode only - Direct, buffered with any capacity, asynchronous with
   either - leave, after the same operations under the same clock and the drop of the writer, the same directory: the
   same names (rCURRENT and the closed files under the keys ts_keys m t0 ops) with the same contents - the greedy partition
   s_run m None ops of the written records and chunks -, and nothing else *)
Theorem ts_modes c1 c2 m t0 off ops :
  same_but_mode c1 c2 -> tsmcfg c1 (CSize m) -> tag_ok c1 -> Forall basic_op ops -> Forall tick_ok ops ->
  (0 <= t0 + ts_e c1 off)%Z -> (t0 + elapsed ops + ts_e c1 off < sec_max)%Z -> (N.of_nat (length ops) <= usize_max)%N ->
  let f1 := wfs (s_w (fst (run (sys0 t0 off) (OStart c1 :: ops ++ [OStop])))) in
  let f2 := wfs (s_w (fst (run (sys0 t0 off) (OStart c2 :: ops ++ [OStop])))) in
  let keys := ts_keys m t0 ops in
  let a := s_run m None ops in
  ts_dir c1 (ts_e c1 off) f1 keys a /\ ts_dir c1 (ts_e c1 off) f2 keys a /\ ts_dir c2 (ts_e c2 off) f2 keys a
  /\ files_of a = expected_files m None (items false ops)
  /\ keys_ok keys /\ (forall k, In k keys -> (t0 <= fst k <= t0 + elapsed ops)%Z).
Proof.
  intros Hm H1 T1 Hb Htk Hlo Hhi Hmax. cbn zeta.
  pose proof (tsmcfg_mode c1 c2 _ Hm H1) as H2. pose proof (same_mode_tag_ok c1 c2 Hm T1) as T2.
  pose proof (same_mode_ts_e c1 c2 off Hm) as Ee.
  destruct (ts_stop_durable c1 (CSize m) t0 off ops H1 T1 Hb Htk Hlo Hhi Hmax) as [k1 [a1 [V1 [_ [K1 [R1 [_ [_ Z1]]]]]]]].
  destruct (ts_stop_durable c2 (CSize m) t0 off ops H2 T2 Hb Htk ltac:(rewrite <- Ee; exact Hlo) ltac:(rewrite <- Ee; exact Hhi) Hmax)
    as [k2 [a2 [V2 [_ [_ [_ [_ [_ Z2]]]]]]]].
  cbn zeta in *. destruct (Z1 m eq_refl) as [-> [Ef ->]]. destruct (Z2 m eq_refl) as [-> [_ ->]].
  split; [exact V1|]. split; [|split; [exact V2 | split; [exact Ef | split; assumption]]].
  rewrite Ee. apply (same_mode_ts_dir c2 c1); [apply same_but_mode_sym; exact Hm | exact V2].
Qed.

(* flushed directories agree across the modes *)
Theorem ts_modes_flushed c1 c2 m t0 off ops :
  same_but_mode c1 c2 -> tsmcfg c1 (CSize m) -> tag_ok c1 -> Forall basic_op ops -> Forall tick_ok ops ->
  (0 <= t0 + ts_e c1 off)%Z -> (t0 + elapsed ops + ts_e c1 off < sec_max)%Z -> (N.of_nat (S (length ops)) <= usize_max)%N ->
  let x1 := fst (run (sys0 t0 off) (OStart c1 :: ops ++ [OFlush])) in
  let x2 := fst (run (sys0 t0 off) (OStart c2 :: ops ++ [OFlush])) in
  let keys := ts_keys m t0 ops in
  let a := s_run m None ops in
  ts_dir c1 (ts_e c1 off) (wfs (s_w x1)) keys a /\ ts_dir c1 (ts_e c1 off) (wfs (s_w x2)) keys a
  /\ pending x1 = [] /\ pending x2 = [].
Proof.
  intros Hm H1 T1 Hb Htk Hlo Hhi Hmax. cbn zeta.
  pose proof (tsmcfg_mode c1 c2 _ Hm H1) as H2. pose proof (same_mode_tag_ok c1 c2 Hm T1) as T2.
  pose proof (same_mode_ts_e c1 c2 off Hm) as Ee.
  destruct (ts_flush_durable c1 (CSize m) t0 off ops H1 T1 Hb Htk Hlo Hhi Hmax) as [k1 [a1 [V1 [_ [_ [_ [P1 Z1]]]]]]].
  destruct (ts_flush_durable c2 (CSize m) t0 off ops H2 T2 Hb Htk ltac:(rewrite <- Ee; exact Hlo) ltac:(rewrite <- Ee; exact Hhi) Hmax)
    as [k2 [a2 [V2 [_ [_ [_ [P2 Z2]]]]]]].
  cbn zeta in *. destruct (Z1 m eq_refl) as [-> [_ ->]]. destruct (Z2 m eq_refl) as [-> [_ ->]].
  split; [exact V1|]. split; [|split; [exact P1 | exact P2]].
  rewrite Ee. apply (same_mode_ts_dir c2 c1); [apply same_but_mode_sym; exact Hm | exact V2].
Qed.

(* ------------------------------------------------------------------ the asynchronous mode, spelled out *)
(* the stream: any criterion *)
Theorem async_ts_stream c crit t0 off ops :
  tsacfg c crit -> tag_ok c -> Forall basic_op ops -> Forall tick_ok ops ->
  (0 <= t0 + ts_e c off)%Z -> (t0 + elapsed ops + ts_e c off < sec_max)%Z -> (N.of_nat (length ops) <= usize_max)%N ->
  let f := wfs (s_w (fst (run (sys0 t0 off) (OStart c :: ops ++ [OStop])))) in
  (names f = [] /\ written ops = [])
  \/ exists keys closed cur,
       ts_view c (ts_e c off) f keys closed cur
       /\ concat closed ++ cur = written ops
       /\ keys_ok keys
       /\ (forall k, In k keys -> (t0 <= fst k <= t0 + elapsed ops)%Z).
Proof.
  intros [Hcfg _] T Hb Htk Hlo Hhi Hmax. cbn zeta.
  destruct (ts_stop_durable c crit t0 off ops Hcfg T Hb Htk Hlo Hhi Hmax) as [keys [a [V [F [K [Rg _]]]]]].
  destruct a as [[closed cur]|]; cbn [ts_dir flat] in *.
  - right. exists keys, closed, cur. auto.
  - left. split; [apply V | symmetry; exact F].
Qed.

(* size criterion: the greedy partition, under the keys ts_keys *)
Theorem async_ts_partition c m t0 off ops :
  tsacfg c (CSize m) -> tag_ok c -> Forall basic_op ops -> Forall tick_ok ops ->
  (0 <= t0 + ts_e c off)%Z -> (t0 + elapsed ops + ts_e c off < sec_max)%Z -> (N.of_nat (length ops) <= usize_max)%N ->
  ts_dir c (ts_e c off) (wfs (s_w (fst (run (sys0 t0 off) (OStart c :: ops ++ [OStop]))))) (ts_keys m t0 ops) (s_run m None ops)
  /\ files_of (s_run m None ops) = expected_files m None (items false ops)
  /\ keys_ok (ts_keys m t0 ops) /\ (forall k, In k (ts_keys m t0 ops) -> (t0 <= fst k <= t0 + elapsed ops)%Z).
Proof.
  intros [Hcfg _] T Hb Htk Hlo Hhi Hmax.
  destruct (ts_stop_durable c (CSize m) t0 off ops Hcfg T Hb Htk Hlo Hhi Hmax) as [keys [a [V [F [K [Rg [_ [_ Z]]]]]]]].
  destruct (Z m eq_refl) as [-> [Ef ->]]. auto.
Qed.

(* what the caller of an asynchronous writer observes: every operation except a snapshot returns "ok, no rotation" - also
   the writes at which the writer thread rotates; after the drop there is no writer, the thread is gone, nothing is pending *)
Theorem async_ts_observations c crit t0 off ops :
  tsacfg c crit -> tag_ok c -> Forall basic_op ops -> Forall tick_ok ops ->
  (0 <= t0 + ts_e c off)%Z -> (t0 + elapsed ops + ts_e c off < sec_max)%Z -> (N.of_nat (length ops) <= usize_max)%N ->
  let r := run (sys0 t0 off) (OStart c :: ops ++ [OStop]) in
  Forall2 aobs (OStart c :: ops ++ [OStop]) (snd r)
  /\ s_flw (fst r) = None /\ s_dead (fst r) = true /\ pending (fst r) = [].
Proof.
  intros [Hcfg Ha] T Hb Htk Hlo Hhi Hmax. cbn zeta.
  destruct (ts_ok_sync_of c crit t0 off ops Hcfg T Hb Htk Hlo Hhi Hmax) as [K Q].
  destruct (async_transfer c t0 off ops Ha Hb K Q) as [_ [_ [Fa [Da O]]]].
  split; [exact O|]. split; [exact Fa|]. split; [exact Da | exact (pending_none _ Fa)].
Qed.

(* flush: as ts_flush_durable, and the writer thread is still running *)
Theorem async_ts_flush_durable c crit t0 off ops :
  tsacfg c crit -> tag_ok c -> Forall basic_op ops -> Forall tick_ok ops ->
  (0 <= t0 + ts_e c off)%Z -> (t0 + elapsed ops + ts_e c off < sec_max)%Z -> (N.of_nat (S (length ops)) <= usize_max)%N ->
  let x := fst (run (sys0 t0 off) (OStart c :: ops ++ [OFlush])) in
  exists keys a,
    ts_dir c (ts_e c off) (wfs (s_w x)) keys a /\ flat a = written ops
    /\ keys_ok keys /\ (forall k, In k keys -> (t0 <= fst k <= t0 + elapsed ops)%Z)
    /\ pending x = [] /\ s_dead x = false
    /\ (forall m, crit = CSize m ->
          a = s_run m None ops /\ files_of a = expected_files m None (items false ops) /\ keys = ts_keys m t0 ops).
Proof.
  intros [Hcfg Ha] T Hb Htk Hlo Hhi Hmax. cbn zeta.
  destruct (ts_flush_durable c crit t0 off ops Hcfg T Hb Htk Hlo Hhi Hmax) as [keys [a [V [F [K [Rg [P Z]]]]]]]. cbn zeta in *.
  exists keys, a. split; [exact V|]. split; [exact F|]. split; [exact K|]. split; [exact Rg|]. split; [exact P|]. split; [|exact Z].
  assert (Hmax' : (N.of_nat (length (ops ++ [OFlush])) <= usize_max)%N) by (rewrite app_length; cbn [length]; lia).
  destruct (ts_ok_sync_of c crit t0 off (ops ++ [OFlush]) Hcfg T (basic_snoc_flush ops Hb) (ticks_snoc_flush ops Htk) Hlo
              ltac:(rewrite elapsed_snoc_flush; exact Hhi) Hmax') as [K' Q'].
  destruct (async_transfer c t0 off (ops ++ [OFlush]) Ha (basic_snoc_flush ops Hb) K' Q') as [S _]. apply S.
Qed.

(* drop: as ts_stop_durable, and the writer thread has ended *)
Theorem async_ts_stop_durable c crit t0 off ops :
  tsacfg c crit -> tag_ok c -> Forall basic_op ops -> Forall tick_ok ops ->
  (0 <= t0 + ts_e c off)%Z -> (t0 + elapsed ops + ts_e c off < sec_max)%Z -> (N.of_nat (length ops) <= usize_max)%N ->
  let x := fst (run (sys0 t0 off) (OStart c :: ops ++ [OStop])) in
  exists keys a,
    ts_dir c (ts_e c off) (wfs (s_w x)) keys a /\ flat a = written ops
    /\ keys_ok keys /\ (forall k, In k keys -> (t0 <= fst k <= t0 + elapsed ops)%Z)
    /\ pending x = [] /\ s_flw x = None /\ s_dead x = true
    /\ (forall m, crit = CSize m ->
          a = s_run m None ops /\ files_of a = expected_files m None (items false ops) /\ keys = ts_keys m t0 ops).
Proof.
  intros [Hcfg Ha] T Hb Htk Hlo Hhi Hmax. cbn zeta.
  destruct (ts_stop_durable c crit t0 off ops Hcfg T Hb Htk Hlo Hhi Hmax) as [keys [a [V [F [K [Rg [P [Fl Z]]]]]]]]. cbn zeta in *.
  exists keys, a. split; [exact V|]. split; [exact F|]. split; [exact K|]. split; [exact Rg|]. split; [exact P|]. split; [exact Fl|].
  split; [|exact Z]. apply (async_ts_observations c crit t0 off ops (conj Hcfg Ha) T Hb Htk Hlo Hhi Hmax).
Qed.

(* the asynchronous writer and the synchronous writer of the same capacity go through the very same worlds (file system,
   clock, error channel), with and without the final drop - ANY criterion; the caller's observations differ in the rotation
   flag only, which the asynchronous caller never sees *)
Theorem async_ts_worlds c crit t0 off ops :
  tsacfg c crit -> tag_ok c -> Forall basic_op ops -> Forall tick_ok ops ->
  (0 <= t0 + ts_e c off)%Z -> (t0 + elapsed ops + ts_e c off < sec_max)%Z -> (N.of_nat (length ops) <= usize_max)%N ->
  let ra := run (sys0 t0 off) (OStart c :: ops) in
  let rs := run (sys0 t0 off) (OStart (sync_of c) :: ops) in
  let ra' := run (sys0 t0 off) (OStart c :: ops ++ [OStop]) in
  let rs' := run (sys0 t0 off) (OStart (sync_of c) :: ops ++ [OStop]) in
  s_w (fst ra) = s_w (fst rs) /\ snd ra = List.map no_rot (snd rs)
  /\ s_w (fst ra') = s_w (fst rs') /\ snd ra' = List.map no_rot (snd rs').
Proof.
  intros [Hcfg Ha] T Hb Htk Hlo Hhi Hmax.
  exact (async_worlds c t0 off ops Ha Hb (ts_ok_sync_of c crit t0 off ops Hcfg T Hb Htk Hlo Hhi Hmax)).
Qed.

Print Assumptions ts_stop_durable.
Print Assumptions ts_flush_durable.
Print Assumptions ts_modes.
Print Assumptions ts_modes_flushed.
Print Assumptions async_ts_stream.
Print Assumptions async_ts_partition.
Print Assumptions async_ts_observations.
Print Assumptions async_ts_flush_durable.
Print Assumptions async_ts_stop_durable.
Print Assumptions async_ts_worlds.

(* ------------------------------------------------------------------ "the same directory", literally *)
Lemma ts_dir_same_dir c e f1 f2 keys a : ts_dir c e f1 keys a -> ts_dir c e f2 keys a ->
  same_dir f1 f2 /\ snap_list f1 = snap_list f2.
Proof.
  destruct a as [[closed cur]|]; cbn [ts_dir].
  - intros [_ [A1 [[jc1 [Lc1 [Pc1 Cc1]]] [B1 N1]]]] [_ [A2 [[jc2 [Lc2 [Pc2 Cc2]]] [B2 N2]]]].
    assert (S : same_dir f1 f2).
    { apply (same_dir_of_entries f1 f2 (fun i => if i <? length closed then kname c e (nth i keys kd) else cname c)
               (fun i => if i <? length closed then nth i closed [] else cur) (S (length closed))).
      - intros i Hi. destruct (Nat.ltb_spec i (length closed)) as [Hl|Hl]; [apply A1; exact Hl | eauto].
      - intros n j L. destruct (B1 n j L) as [->|[i [Hi ->]]].
        + exists (length closed). rewrite Nat.ltb_irrefl. split; [lia | reflexivity].
        + exists i. rewrite (proj2 (Nat.ltb_lt _ _) Hi). split; [lia | reflexivity].
      - intros i Hi. destruct (Nat.ltb_spec i (length closed)) as [Hl|Hl]; [apply A2; exact Hl | eauto].
      - intros n j L. destruct (B2 n j L) as [->|[i [Hi ->]]].
        + exists (length closed). rewrite Nat.ltb_irrefl. split; [lia | reflexivity].
        + exists i. rewrite (proj2 (Nat.ltb_lt _ _) Hi). split; [lia | reflexivity]. }
    split; [exact S | apply same_dir_snap; assumption].
  - intros [Hn1 _] [Hn2 _]. split.
    + intros n. unfold dview. rewrite !lookup_empty by assumption. reflexivity.
    + unfold snap_list, dir_names. rewrite Hn1, Hn2. reflexivity.
Qed.

(* C15 once more: the two final directories are the same map from names to files (kind, content), and the snapshots -
   names in sorted order with kind and content - are equal *)
Theorem ts_modes_same_dir c1 c2 m t0 off ops :
  same_but_mode c1 c2 -> tsmcfg c1 (CSize m) -> tag_ok c1 -> Forall basic_op ops -> Forall tick_ok ops ->
  (0 <= t0 + ts_e c1 off)%Z -> (t0 + elapsed ops + ts_e c1 off < sec_max)%Z -> (N.of_nat (length ops) <= usize_max)%N ->
  let x1 := fst (run (sys0 t0 off) (OStart c1 :: ops ++ [OStop])) in
  let x2 := fst (run (sys0 t0 off) (OStart c2 :: ops ++ [OStop])) in
  same_dir (wfs (s_w x1)) (wfs (s_w x2)) /\ snap_of x1 = snap_of x2.
Proof.
  intros Hm H1 T1 Hb Htk Hlo Hhi Hmax. cbn zeta.
  destruct (ts_modes c1 c2 m t0 off ops Hm H1 T1 Hb Htk Hlo Hhi Hmax) as [V1 [V2 _]]. cbn zeta in *.
  rewrite !snap_of_list. exact (ts_dir_same_dir c1 _ _ _ _ _ V1 V2).
Qed.
Print Assumptions ts_modes_same_dir.

(* ------------------------------------------------------------------ examples *)
Section Examples.
Open Scope string_scope.
(* app_rCURRENT.log / app_r<time stamp>[.restart-NNNN].log, rotation when the current file holds more than 3 bytes *)
Definition exsm (cap : option nat) (async : bool) : config := with_mode (ext_cfg (ex_sp "log") false (CSize 3) None false) cap async.
Definition exsm_direct := exsm None false.
Definition exsm_buffered := exsm (Some 4%nat) false.
Definition exsm_async := exsm (Some 4%nat) true.        (* the writer thread writes through a BufWriter of 4 bytes *)
Definition exsm_async_unbuffered := exsm None true.

Lemma exsm_tag_ok cap async : tag_ok (exsm cap async).
Proof. apply tag_free_ok. split; vm_compute; reflexivity. Qed.

(* the history of TsdAsync.extm_hist: a trigger before the first record, a rotation by size in second 3, a trigger in the
   same second, a rotation by size in second 5.  The hypotheses are satisfiable *)
Example exsm_hyps :
  tscfg exsm_direct (CSize 3) /\ tscfg exsm_buffered (CSize 3) /\ tsacfg exsm_async (CSize 3)
  /\ tsacfg exsm_async_unbuffered (CSize 3)
  /\ same_but_mode exsm_direct exsm_buffered /\ same_but_mode exsm_direct exsm_async /\ same_but_mode exsm_buffered exsm_async_unbuffered
  /\ (0 <= 0 + ts_e exsm_direct 0)%Z /\ (0 + elapsed extm_hist + ts_e exsm_direct 0 < sec_max)%Z
  /\ (N.of_nat (S (length extm_hist)) <= usize_max)%N.
Proof. repeat split; try discriminate. Qed.

(* each closed file carries the second in which it was started; the file started by the last rotation is rCURRENT *)
Definition exsm_dir : list (bytes * N * bytes) :=
  [ (bs "app_r1970-01-01_00-00-00.log", 0%N, bs "abcd"); (bs "app_r1970-01-01_00-00-03.log", 0%N, bs "ef");
    (bs "app_r1970-01-01_00-00-03.restart-0000.log", 0%N, bs "ghijkl"); (bs "app_rCURRENT.log", 0%N, bs "m") ].

(* the directory after the history and the drop of the writer: the same in the four modes *)
Example exsm_dir_direct : snap_of (fst (run (sys0 0 0) (OStart exsm_direct :: extm_hist ++ [OStop]))) = exsm_dir.
Proof. vm_compute. reflexivity. Qed.
Example exsm_dir_buffered : snap_of (fst (run (sys0 0 0) (OStart exsm_buffered :: extm_hist ++ [OStop]))) = exsm_dir.
Proof. vm_compute. reflexivity. Qed.
Example exsm_dir_async : snap_of (fst (run (sys0 0 0) (OStart exsm_async :: extm_hist ++ [OStop]))) = exsm_dir.
Proof. vm_compute. reflexivity. Qed.
Example exsm_dir_async_unbuffered : snap_of (fst (run (sys0 0 0) (OStart exsm_async_unbuffered :: extm_hist ++ [OStop]))) = exsm_dir.
Proof. vm_compute. reflexivity. Qed.

(* the keys and the contents as the theorems have them: functions of the history and the clock *)
Example exsm_keys : ts_keys 3 0 extm_hist = [(0%Z, 0); (3%Z, 0); (3%Z, 1)]
  /\ s_run 3 None extm_hist = Some ([bs "abcd"; bs "ef"; bs "ghijkl"], bs "m")
  /\ List.map (kname exsm_direct 0) (ts_keys 3 0 extm_hist) ++ [cname exsm_direct]
     = List.map (fun x : bytes * N * bytes => fst (fst x)) exsm_dir.
Proof. vm_compute. repeat split; reflexivity. Qed.

(* instance of ts_modes: Direct against asynchronous-buffered *)
Example exsm_modes_instance :
  let f1 := wfs (s_w (fst (run (sys0 0 0) (OStart exsm_direct :: extm_hist ++ [OStop])))) in
  let f2 := wfs (s_w (fst (run (sys0 0 0) (OStart exsm_async :: extm_hist ++ [OStop])))) in
  ts_view exsm_direct 0 f1 [(0%Z, 0); (3%Z, 0); (3%Z, 1)] [bs "abcd"; bs "ef"; bs "ghijkl"] (bs "m")
  /\ ts_view exsm_direct 0 f2 [(0%Z, 0); (3%Z, 0); (3%Z, 1)] [bs "abcd"; bs "ef"; bs "ghijkl"] (bs "m").
Proof.
  destruct (ts_modes exsm_direct exsm_async 3 0 0 extm_hist) as [V1 [V2 _]];
    [repeat split | repeat split | apply exsm_tag_ok | exact extm_hist_basic | exact extm_hist_ticks
     | change (0 <= 0)%Z; lia | change (5 < sec_max)%Z; unfold sec_max; lia | vm_compute; discriminate |].
  cbn zeta in *. destruct exsm_keys as [Ek [Ea _]]. rewrite Ek, Ea in V1, V2. split; [exact V1 | exact V2].
Qed.

(* the snapshots before and after the flush: with a BufWriter of 4 bytes the record "ef" is still pending at the first
   one - in buffered and in asynchronous mode alike - and on the disk at the second, in every mode *)
Definition exsm_snap (cur : bytes) : obs :=
  ObsSnap [(bs "app_r1970-01-01_00-00-00.log", 0%N, bs "abcd"); (bs "app_rCURRENT.log", 0%N, cur)] None [].
Example exsm_snaps_direct : snaps exsm_direct extm_hist = [exsm_snap (bs "ef"); exsm_snap (bs "ef")].
Proof. vm_compute. reflexivity. Qed.
Example exsm_snaps_buffered : snaps exsm_buffered extm_hist = [exsm_snap (bs ""); exsm_snap (bs "ef")].
Proof. vm_compute. reflexivity. Qed.
Example exsm_snaps_async : snaps exsm_async extm_hist = [exsm_snap (bs ""); exsm_snap (bs "ef")].
Proof. vm_compute. reflexivity. Qed.
Example exsm_snaps_async_unbuffered : snaps exsm_async_unbuffered extm_hist = [exsm_snap (bs "ef"); exsm_snap (bs "ef")].
Proof. vm_compute. reflexivity. Qed.

(* the rotation flags: the synchronous caller sees the rotations at the writes of "ef" and of "m" (timestamps_rotates_iff),
   the asynchronous never *)
Example exsm_flags_buffered : rots_seen exsm_buffered extm_hist
  = [false; false; false; false; true; false; false; false; false; false; false; false; true; false]%bool.
Proof. vm_compute. reflexivity. Qed.
Example exsm_flags_async : rots_seen exsm_async extm_hist
  = [false; false; false; false; false; false; false; false; false; false; false; false; false; false]%bool.
Proof. vm_compute. reflexivity. Qed.
Example exsm_rotates_instance :
  nth_error (snd (run (sys0 0 0) (OStart exsm_buffered :: extm_hist))) 4 = Some (ObsRes 0 true).
Proof.
  rewrite (timestamps_rotates_iff exsm_buffered 3 0 0 extm_hist 3 (OWrite (bs "ef")) (bs "ef"));
    [vm_compute; reflexivity | repeat split | apply exsm_tag_ok | exact extm_hist_basic | exact extm_hist_ticks
     | change (0 <= 0)%Z; lia | change (5 < sec_max)%Z; unfold sec_max; lia | vm_compute; discriminate | reflexivity | left; reflexivity].
Qed.

(* instance of async_ts_flush_durable: the prefix of the history up to the record "ef", then a flush *)
Example exsm_flush_instance :
  let x := fst (run (sys0 0 0) (OStart exsm_async :: [OTrigger; OWrite (bs "abcd"); OTick 3; OWrite (bs "ef")] ++ [OFlush])) in
  ts_view exsm_async 0 (wfs (s_w x)) [(0%Z, 0)] [bs "abcd"] (bs "ef") /\ pending x = [] /\ s_dead x = false.
Proof.
  destruct (async_ts_flush_durable exsm_async (CSize 3) 0 0 [OTrigger; OWrite (bs "abcd"); OTick 3; OWrite (bs "ef")])
    as [keys [a [V [_ [_ [_ [P [D Z]]]]]]]];
    [repeat split | apply exsm_tag_ok | repeat constructor
     | repeat (apply Forall_cons; [cbn [tick_ok]; first [exact Logic.I | lia]|]); apply Forall_nil
     | change (0 <= 0)%Z; lia | change (3 < sec_max)%Z; unfold sec_max; lia | vm_compute; discriminate |].
  cbn zeta in *. destruct (Z 3%N eq_refl) as [-> [_ ->]]. split; [exact V | split; [exact P | exact D]].
Qed.

(* NOT covered by ts_modes (size criterion only): an age criterion, a zone offset of two hours.  The rotation decision depends
   on the clock and on the creation time of the current file, not on the buffer; the four modes agree on this history (computed) *)
Definition exsm_age (cap : option nat) (async : bool) : config := with_mode (ext_c2 false) cap async.
Example exsm_age_modes_agree :
  let dir c := snap_of (fst (run (sys0 1700000000 7200) (OStart c :: ext_ops2 ++ [OStop]))) in
  dir (exsm_age None false) = [ (bs "srv_a1_r2023-11-15_00-13-20", 0%N, bs "x"); (bs "srv_a1_rCURRENT", 0%N, bs "yz") ]
  /\ dir (exsm_age (Some 100%nat) false) = dir (exsm_age None false)
  /\ dir (exsm_age (Some 100%nat) true) = dir (exsm_age None false)
  /\ dir (exsm_age None true) = dir (exsm_age None false).
Proof. vm_compute. repeat split; reflexivity. Qed.
End Examples.
