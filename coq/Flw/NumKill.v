(* Numbers naming, direct mode (no user-space buffer), a process that is killed at an arbitrary effect:
   no acknowledged record is lost, nothing else is in the files.

   Shared with the other namings: acked, with_w, apot, oview, IdleO, the step-to-run Section KillRun, and one rotation in
   a world with a budget.

   The kill counter is consumed by `effect` only (one unit per file-system effect: rename, create/open, write);
   `tick` (the fault oracle) does not touch it.  The observations of the model carry no "dead" marker: the harness
   recognises the operations of a dead process by `alive (s_w x) = false` after the step (`alive` is extracted for
   that).  An operation is ACKNOWLEDGED when the process is still alive after it. *)
Require Import FL.Base.Bytes FL.Base.BytesFacts FL.Base.PathName FL.Fs.Fs FL.Fs.FsFacts FL.Time.TsFormat
  FL.Names.FileSpec FL.Flw.Model FL.Flw.ModelFacts FL.Flw.NumFs FL.Flw.NumInv FL.Flw.Run
  FL.Flw.NumRun FL.Flw.NumListing FL.Flw.NumTheorems FL.Flw.NumRestart FL.Flw.KillFacts.
From Coq Require Import ZifyN ZifyNat ZifyBool.
Open Scope nat_scope.

(* ------------------------------------------------------------------ the reader's view, current file optional *)
(* a kill between the rename of rCURRENT and the creation of the new one leaves no current file *)
Definition reader_view_opt (c : config) (f : fs) (closed : list bytes) (ocur : option bytes) : Prop :=
  (forall i, i < length closed ->
     exists j, lookup f (rname c i) = Some j /\ plain (inode f j) /\ content f j = nth i closed [])
  /\ match ocur with
     | Some cur => exists j, lookup f (cname c) = Some j /\ plain (inode f j) /\ content f j = cur
     | None => lookup f (cname c) = None
     end
  /\ (forall n j, lookup f n = Some j -> n = cname c \/ exists i, i < length closed /\ n = rname c i).

Lemma reader_view_opt_some c f cl cu : reader_view_opt c f cl (Some cu) <-> reader_view c f cl cu.
Proof. unfold reader_view_opt, reader_view. tauto. Qed.

Definition oview := (list bytes * option bytes)%type.
Definition oflat (v : oview) : bytes := concat (fst v) ++ match snd v with Some cu => cu | None => [] end.

Lemma reader_view_opt_spec c c' f cl ocu : c_spec c = c_spec c' -> reader_view_opt c f cl ocu -> reader_view_opt c' f cl ocu.
Proof.
  intros E [H1 [H2 H3]]. unfold reader_view_opt. rewrite <- (cname_spec_eq c c' E).
  split; [|split].
  - intros i Hi. rewrite <- (rname_spec_eq c c' i E). apply H1. exact Hi.
  - exact H2.
  - intros n j L. destruct (H3 n j L) as [->|[i [Hi ->]]]; [left; reflexivity|]. right. exists i.
    split; [exact Hi | apply rname_spec_eq; exact E].
Qed.

(* the directory of a dead process *)
Definition DeadDir (c : config) (w : world) (v : oview) : Prop :=
  dead w /\ fs_wf (wfs w) /\ reader_view_opt c (wfs w) (fst v) (snd v).

Lemma numinv_view c q wr cl : NumInv c q wr cl -> wpend wr = [] ->
  fs_wf (wfs q) /\ reader_view_opt c (wfs q) cl (Some (cur_view q wr)).
Proof.
  intros [Q W Hc Hcp Hcl Hon Hwr Hcap] P. split; [exact W|]. split; [exact Hcl|]. split; [|exact Hon].
  exists (wino wr). split; [exact Hc|]. split; [exact Hcp|]. unfold cur_view. rewrite P, app_nil_r. reflexivity.
Qed.

(* after the rename, before the new current file exists *)
Lemma rename_view c q wr cl f1 : NumInv c q wr cl -> rename (wfs q) (cname c) (rname c (length cl)) = Some f1 ->
  fs_wf f1 /\ reader_view_opt c f1 (cl ++ [content (wfs q) (wino wr)]) None.
Proof.
  intros [Q W Hc Hcp Hcl Hon Hwr Hcap] Er.
  destruct (rename_spec (wfs q) (cname c) (rname c (length cl)) (wino wr) (fun E => rname_not_cname c _ (eq_sym E)) Hc)
    as [f' [E [Hino [Lt [Lc Lo]]]]].
  rewrite Er in E. injection E as <-.
  split; [exact (wf_rename _ _ _ _ W Er)|].
  assert (In1 : forall j, inode f1 j = inode (wfs q) j) by (intros j; unfold inode; rewrite Hino; reflexivity).
  split; [|split].
  - intros i Hi. rewrite app_length in Hi. cbn [length] in Hi.
    destruct (Nat.eq_dec i (length cl)) as [->|Hne].
    + exists (wino wr). split; [exact Lt|]. split; [rewrite In1; exact Hcp|].
      unfold content. rewrite In1, app_nth2, Nat.sub_diag by lia. reflexivity.
    + assert (Hi' : i < length cl) by lia. destruct (Hcl i Hi') as [j [Lj [Pj Cj]]]. exists j.
      rewrite Lo; [|apply rname_not_cname | intros E; apply rname_inj in E; lia].
      split; [exact Lj|]. split; [rewrite In1; exact Pj|]. unfold content. rewrite In1, app_nth1 by assumption. exact Cj.
  - exact Lc.
  - intros n j Hn.
    destruct (beq_spec n (rname c (length cl))) as [->|Hn2].
    + right. exists (length cl). rewrite app_length. cbn [length]. split; [lia | reflexivity].
    + destruct (beq_spec n (cname c)) as [->|Hn1]; [rewrite Lc in Hn; discriminate|].
      rewrite Lo in Hn by assumption. destruct (Hon _ _ Hn) as [E|[i [Hi E]]]; [contradiction|].
      right. exists i. rewrite app_length. cbn [length]. split; [lia | exact E].
Qed.

Lemma alive_kw q n : alive (kw q (S n)) = true.
Proof. reflexivity. Qed.
Lemma alive_kw0 q : alive (kw q 0) = false.
Proof. reflexivity. Qed.

(* ------------------------------------------------------------------ the relation for a process with a budget *)
Definition with_w (x : sys) (q : world) : sys := {| s_flw := s_flw x; s_w := q; s_tl := s_tl x; s_dead := s_dead x |}.
(* the world of x is a quiet world q with the counter at S n (alive, n effects left); apart from the counter the
   state is related to the abstract view as in a run without kill *)
Definition KRel (c : config) (crit : criterion) (x : sys) (a : aview) : Prop :=
  exists q n, s_w x = kw q (S n) /\ Rel c crit (with_w x q) a.
Definition apot (a : aview) : nat := match a with Some (cl, _) => length cl | None => 0 end.

Lemma empty_view c f : names f = [] -> fs_wf f /\ reader_view_opt c f [] None.
Proof.
  intros Hn. split.
  - split; intros; rewrite lookup_empty in * by assumption; discriminate.
  - split; [intros i Hi; cbn in Hi; lia|]. split; [apply lookup_empty; assumption|].
    intros n j L. rewrite lookup_empty in L by assumption. discriminate.
Qed.

Lemma writer_eta wr : wpend wr = [] -> {| wino := wino wr; wpend := []; wcap := wcap wr |} = wr.
Proof. destruct wr; cbn. intros ->. reflexivity. Qed.

Lemma a_step_apot a o rot : apot (a_step a o rot) <= S (apot a).
Proof.
  destruct a as [[cl cu]|]; destruct o; cbn [a_step apot]; try lia; try destruct rot; cbn [apot]; rewrite ?app_length; cbn [length]; lia.
Qed.

(* ------------------------------------------------------------------ acknowledged records *)
(* the payloads of the writes after which the process is still alive *)
Fixpoint acked (x : sys) (ops : list op) : bytes :=
  match ops with
  | [] => []
  | o :: r => let x' := fst (step x o) in (if alive (s_w x') then written [o] else []) ++ acked x' r
  end.

Lemma fst_run_cons x o r : fst (run x (o :: r)) = fst (run (fst (step x o)) r).
Proof. cbn [run]. destruct (step x o) as [x1 ob]. cbn [fst]. destruct (run x1 r). reflexivity. Qed.
Lemma fst_run_app x a b : fst (run x (a ++ b)) = fst (run (fst (run x a)) b).
Proof. rewrite run_app. destruct (run x a) as [x1 o1]. cbn [fst]. destruct (run x1 b). reflexivity. Qed.

Lemma acked_dead : forall ops x, dead (s_w x) -> Forall basic_op ops -> acked x ops = [].
Proof.
  induction ops as [|o r IH]; intros x H Hb; [reflexivity|]. inversion Hb as [|o' r' Ho Hr]; subst. cbn [acked].
  pose proof (dead_step x o H Ho) as [D _]. rewrite (dead_not_alive _ D). cbn [app]. apply IH; assumption.
Qed.

Lemma a_run_apot : forall ops a obs, apot (a_run a ops obs) <= apot a + length ops.
Proof.
  induction ops as [|o r IH]; intros a obs; cbn [a_run length]; [lia|].
  destruct obs as [|ob robs]; [lia|]. specialize (IH (a_step a o (rot_of ob)) robs).
  pose proof (a_step_apot a o (rot_of ob)). lia.
Qed.

(* the directory when no writer is there; the current file may be missing *)
Definition IdleO (c : config) (x : sys) (v : oview) : Prop :=
  s_tl x = [] /\ wacts (s_w x) = 0 /\ s_flw x = None /\ quiet (s_w x) /\ fs_wf (wfs (s_w x))
  /\ reader_view_opt c (wfs (s_w x)) (fst v) (snd v).

Lemma step_crash x : step x OCrash = sync_step x OCrash.
Proof.
  unfold step, apply_start. destruct (s_flw x) as [s|] eqn:Es; cbn [names_computed andb]; unfold step_core; rewrite Es; [|reflexivity].
  destruct (is_async s); reflexivity.
Qed.

(* KR x a: the process is alive and related to the view a.  P f d: the file system f is a directory that a death can
   leave, described by d.  One hypothesis: an operation of a living process completes, or the process dies in it and
   leaves such a directory with the records acknowledged so far. *)
Section KillRun.
Variables (D : Type) (KR : sys -> aview -> Prop) (P : fs -> D -> Prop) (flatD : D -> bytes) (lenD : D -> nat).
Hypothesis kstep : forall x a o, KR x a -> basic_op o ->
  let '(x', ob) := step x o in
  (alive (s_w x') = true /\ KR x' (a_step a o (rot_of ob)))
  \/ (alive (s_w x') = false /\ exists d, (dead (s_w x') /\ P (wfs (s_w x')) d) /\ flatD d = flat a /\ lenD d <= S (apot a)).

Lemma krun_of_kstep : forall ops x a, KR x a -> Forall basic_op ops ->
  (exists a', KR (fst (run x ops)) a' /\ flat a' = flat a ++ acked x ops /\ apot a' <= apot a + length ops)
  \/ (exists d, (dead (s_w (fst (run x ops))) /\ P (wfs (s_w (fst (run x ops)))) d) /\ flatD d = flat a ++ acked x ops
                /\ lenD d <= S (apot a + length ops)).
Proof.
  induction ops as [|o r IH]; intros x a K Hb.
  - left. exists a. cbn [run fst acked length]. rewrite app_nil_r, Nat.add_0_r. split; [exact K|]. split; [reflexivity | apply Nat.le_refl].
  - inversion Hb as [|o' r' Ho Hr]; subst. rewrite fst_run_cons. cbn [acked length].
    pose proof (kstep x a o K Ho) as S. destruct (step x o) as [x1 ob] eqn:Est. cbn [fst].
    pose proof (a_step_apot a o (rot_of ob)) as Hpot.
    destruct S as [[Al K1] | [Al [d [[Dd Pd] [Fl Len]]]]]; rewrite Al.
    + destruct (IH x1 _ K1 Hr) as [[a' [K' [F' P']]] | [d [Dd [F' P']]]].
      * left. exists a'. split; [exact K'|]. split.
        -- rewrite F', a_step_flat by exact Ho. rewrite app_assoc. reflexivity.
        -- clear - P' Hpot. lia.
      * right. exists d. split; [exact Dd|]. split.
        -- rewrite F', a_step_flat by exact Ho. rewrite app_assoc. reflexivity.
        -- clear - P' Hpot. lia.
    + cbn [app]. pose proof (dead_run r x1 Dd Hr) as [D2 F2]. rewrite (acked_dead r x1 Dd Hr), app_nil_r.
      right. exists d. split; [split; [exact D2 | rewrite F2; exact Pd]|]. split; [exact Fl | clear - Len; lia].
Qed.

(* the acknowledged bytes are the bytes written by a prefix of the operations: the process dies once *)
Lemma acked_prefix_of_kstep : forall ops x a, KR x a -> Forall basic_op ops -> exists j, acked x ops = written (firstn j ops).
Proof.
  induction ops as [|o r IH]; intros x a K Hb; [exists 0; reflexivity|].
  inversion Hb as [|o' r' Ho Hr]; subst. cbn [acked].
  pose proof (kstep x a o K Ho) as S. destruct (step x o) as [x1 ob] eqn:Est. cbn [fst].
  destruct S as [[Al K1] | [Al [d [[Dd _] _]]]]; rewrite Al.
  - destruct (IH x1 _ K1 Hr) as [j E]. exists (S j). cbn [firstn]. rewrite E, (written_cons o (firstn j r)). reflexivity.
  - exists 0. rewrite (acked_dead r x1 Dd Hr). reflexivity.
Qed.
Lemma armed_of_kstep (R : sys -> aview -> Prop) x0 ops1 k :
  R x0 None ->
  (forall ops x a, R x a -> Forall basic_op ops -> R (fst (run x ops)) (a_run a ops (snd (run x ops)))) ->
  (forall x a, R x a -> KR (fst (step x (OSetKill k))) a) -> Forall basic_op ops1 ->
  exists a1, KR (fst (run x0 (ops1 ++ [OSetKill k]))) a1 /\ flat a1 = written ops1 /\ apot a1 <= length ops1.
Proof.
  intros R0 Hrun Harm Hb1. rewrite fst_run_app, fst_run_cons. cbn [run fst].
  pose proof (Hrun ops1 x0 None R0 Hb1) as R1. pose proof (run_length ops1 x0) as L1.
  pose proof (a_run_flat ops1 None (snd (run x0 ops1)) Hb1 L1) as F1.
  pose proof (a_run_apot ops1 None (snd (run x0 ops1))) as P1. cbn [apot flat app] in F1, P1.
  exists (a_run None ops1 (snd (run x0 ops1))). split; [exact (Harm _ _ R1)|]. split; [exact F1 | exact P1].
Qed.

Lemma history_of_kstep (Idle : sys -> D -> Prop) x0 ops1 k ops2 a1 :
  (forall x a, KR x a -> exists d, Idle (fst (step x OCrash)) d /\ flatD d = flat a /\ lenD d = apot a) ->
  (forall x d, dead (s_w x) /\ P (wfs (s_w x)) d -> Idle (fst (step x OCrash)) d) ->
  KR (fst (run x0 (ops1 ++ [OSetKill k]))) a1 -> flat a1 = written ops1 -> apot a1 <= length ops1 -> Forall basic_op ops2 ->
  exists d, Idle (fst (run x0 (ops1 ++ [OSetKill k] ++ ops2 ++ [OCrash]))) d
    /\ flatD d = written ops1 ++ acked (fst (run x0 (ops1 ++ [OSetKill k]))) ops2
    /\ lenD d <= S (length ops1 + length ops2).
Proof.
  intros Halive Hdead K2 F1 P1 Hb2. rewrite (app_assoc ops1), (fst_run_app x0 (ops1 ++ [OSetKill k])), fst_run_app, fst_run_cons.
  cbn [run fst]. set (x2 := fst (run x0 (ops1 ++ [OSetKill k]))) in *.
  destruct (krun_of_kstep ops2 x2 a1 K2 Hb2) as [[a' [K' [F' P']]] | [d [Dd [F' P']]]].
  - destruct (Halive _ a' K') as [d [Id [Fd Ld]]]. exists d. split; [exact Id|].
    split; [rewrite Fd, F', F1; reflexivity | lia].
  - exists d. split; [exact (Hdead _ d Dd)|]. split; [rewrite F', F1; reflexivity | lia].
Qed.
End KillRun.

Lemma name_of_nm c w i : fts (c_spec c) = false -> name_of c w (Some i) = nm c i.
Proof. intros H. apply name_of_fixed. exact H. Qed.

Lemma roll_of_size_ok crit n t : roll_size_ok (roll_of crit (N.of_nat n) t) n.
Proof. destruct crit; reflexivity. Qed.

Lemma rsize_kept crit roll roll' :
  (forall m, crit = CSize m -> exists k, roll = RSize m k) -> (forall m cur, roll = RSize m cur -> exists cur', roll' = RSize m cur') ->
  forall m, crit = CSize m -> exists k, roll' = RSize m k.
Proof. intros RS R' m Hm. destruct (RS m Hm) as [k E]. exact (R' m k E). Qed.

Lemma w_write_direct_kw (Inv : world -> Prop) q wr b n :
  quiet q -> wpend wr = [] -> wcap wr = None -> Inv q ->
  (forall x q', wfs q' = append_ino (wfs q) (wino wr) x -> same_env q q' ->
     Inv q' /\ content (wfs q') (wino wr) = content (wfs q) (wino wr) ++ x) ->
  exists w', w_write (kw q (S n)) wr b = (true, w', wr) /\
   ( (exists q' n', w' = kw q' (S n') /\ Inv q' /\ cur_view q' wr = cur_view q wr ++ b /\ same_env q q') \/ w' = kw q 0 ).
Proof.
  intros Q Hp Hc I A. rewrite (w_write_kw q (S n) wr b Q Hc). eexists. split; [reflexivity|].
  destruct b as [|x b].
  - left. exists q, n. split; [reflexivity|]. split; [exact I|]. split; [rewrite app_nil_r; reflexivity | apply same_env_refl; exact Q].
  - destruct n as [|n']; cbn [eff_fs]; [right; reflexivity|].
    left. exists (set_fs q (append_ino (wfs q) (wino wr) (x :: b))), n'. split; [reflexivity|].
    destruct (A (x :: b) (set_fs q (append_ino (wfs q) (wino wr) (x :: b))) eq_refl (same_env_set_fs q _ Q)) as [I2 C2].
    split; [exact I2|]. split; [|apply same_env_set_fs; exact Q].
    unfold cur_view. rewrite C2, Hp, !app_nil_r. reflexivity.
Qed.

Lemma mount_tail_dead_never c w rs wr path ns1 r : dead w -> rs_cleanup rs = KNever ->
  exists r' st', mount_tail c w rs wr path ns1 r = (r', w, st').
Proof.
  intros H Hk. unfold mount_tail. destruct r as [infix| |]; [|eauto..].
  destruct (open_log_file_dead c w (Some infix) H) as [r2 E2]. rewrite E2.
  destruct r2 as [[wr' path']| |]; [|eauto..].
  destruct (w_flush_dead w wr H) as [wra Ef]. rewrite Ef. cbv beta iota zeta. rewrite w_drop_dead by assumption.
  unfold cleanup_or_queue. rewrite Hk. destruct (rs_bg rs); cbn [cleanup_impl]; eauto.
Qed.

(* a rotation whose naming step renames the current file to f1 (kill point 1): then the creation of the new file, of a free
   name (2), then the cleanup.  Numbers and Timestamps naming. *)
Lemma mount_next_rename_kw c q rs wr path force j infix ns1 f1 :
  fts (c_spec c) = false -> c_symlink c = false -> quiet q -> wpend wr = [] ->
  force || rotation_necessary q (rs_roll rs) = true ->
  naming_step c (kw q j) (rs_naming rs) = (Ok infix, eff_fs q j f1, ns1) ->
  lookup f1 (nm c infix) = None ->
  mount_next c (kw q j) (Active (Some rs) wr path) force =
  match j with
  | 0 | 1 => mount_tail c (kw q 0) rs wr path ns1 (Ok infix)
  | S (S j') =>
    let w2 := eff_fs (set_fs q f1) (S j') (fst (create_file f1 (nm c infix) 0%N (wnow q))) in
    let '(rc, w4) := cleanup_or_queue c w2 (rs_bg rs) (rs_cleanup rs) (ns_filter ns1)
                       (if ns_writes_direct ns1 then Some (nm c infix) else None) in
    (match rc with Ok _ => Ok tt | Err => Err | Panic => Panic end, w4,
     Active (Some {| rs_naming := ns1; rs_roll := reset_size_and_date w2 (rs_roll rs) (nm c infix);
                     rs_cleanup := rs_cleanup rs; rs_bg := rs_bg rs |})
            {| wino := length (inodes f1); wpend := []; wcap := c_cap c |} (nm c infix))
  end.
Proof.
  intros Hts Hlink Q P Hnec En L1.
  rewrite mount_next_eq by (rewrite rot_nec_kw; exact Hnec). rewrite En.
  destruct j as [|[|j']]; cbn [eff_fs]; try reflexivity.
  assert (L1' : lookup (wfs (set_fs q f1)) (name_of c (set_fs q f1) (Some infix)) = None)
    by (rewrite name_of_nm by exact Hts; exact L1).
  rewrite (mount_tail_open c _ rs wr _ _ _ _ _ _ (open_log_file_fresh_kw c (set_fs q f1) (S j') (Some infix) Q Hlink L1') P).
  rewrite !(name_of_nm c (set_fs q f1)) by exact Hts. reflexivity.
Qed.

Lemma mount_next_numr_kw c q rs wr force idx j f1 :
  fts (c_spec c) = false -> c_symlink c = false -> quiet q -> wpend wr = [] -> rs_naming rs = NSNumR idx ->
  force || rotation_necessary q (rs_roll rs) = true ->
  rename (wfs q) (cname c) (nm c (number_infix idx)) = Some f1 -> lookup f1 (cname c) = None ->
  mount_next c (kw q j) (Active (Some rs) wr (cname c)) force =
  match j with
  | 0 | 1 => mount_tail c (kw q 0) rs wr (cname c) (NSNumR (idx + 1)) (Ok cur_infix)
  | S (S j') =>
    let w2 := eff_fs (set_fs q f1) (S j') (fst (create_file f1 (cname c) 0%N (wnow q))) in
    let '(rc, w4) := cleanup_or_queue c w2 (rs_bg rs) (rs_cleanup rs) IFNum None in
    (match rc with Ok _ => Ok tt | Err => Err | Panic => Panic end, w4,
     Active (Some {| rs_naming := NSNumR (idx + 1); rs_roll := reset_size_and_date w2 (rs_roll rs) (cname c);
                     rs_cleanup := rs_cleanup rs; rs_bg := rs_bg rs |})
            {| wino := length (inodes f1); wpend := []; wcap := c_cap c |} (cname c))
  end.
Proof.
  intros Hts Hlink Q P Hns Hnec Er L1.
  apply (mount_next_rename_kw c q rs wr (cname c) force j cur_infix (NSNumR (idx + 1)) f1 Hts Hlink Q P Hnec); [|exact L1].
  rewrite Hns. apply (naming_step_numr_kw c q j idx f1 Q). rewrite !name_of_nm by exact Hts. exact Er.
Qed.

Lemma mount_next_numd_kw c q rs wr path force idx j :
  fts (c_spec c) = false -> c_symlink c = false -> quiet q -> wpend wr = [] -> rs_naming rs = NSNumD idx ->
  force || rotation_necessary q (rs_roll rs) = true ->
  lookup (wfs q) (nm c (number_infix (idx + 1))) = None ->
  mount_next c (kw q j) (Active (Some rs) wr path) force =
  let p' := nm c (number_infix (idx + 1)) in
  let w2 := eff_fs q j (fst (create_file (wfs q) p' 0%N (wnow q))) in
  let '(rc, w4) := cleanup_or_queue c w2 (rs_bg rs) (rs_cleanup rs) IFNum (Some p') in
  (match rc with Ok _ => Ok tt | Err => Err | Panic => Panic end, w4,
   Active (Some {| rs_naming := NSNumD (idx + 1); rs_roll := reset_size_and_date w2 (rs_roll rs) p';
                   rs_cleanup := rs_cleanup rs; rs_bg := rs_bg rs |})
          {| wino := length (inodes (wfs q)); wpend := []; wcap := c_cap c |} p').
Proof.
  intros Hts Hlink Q P Hns Hnec L. rewrite <- (name_of_nm c q _ Hts) in *.
  assert (En : naming_step c (kw q j) (rs_naming rs) = (Ok (number_infix (idx + 1)), kw q j, NSNumD (idx + 1))) by (rewrite Hns; reflexivity).
  exact (mount_next_create_kw c q rs wr path force j _ _ Hlink Q P Hnec En L).
Qed.

Lemma init_naming_empty_kw c q k : fts (c_spec c) = false -> quiet q -> names (wfs q) = [] ->
  init_naming c (kw q k) NNumbers = (Ok (NSNumR 0, cur_infix), kw q k).
Proof.
  intros Hts Q Hn. unfold init_naming, index_for_rcurrent, with_listing. rewrite tick_kw by exact Q.
  unfold get_highest_index, list_log_gz. rewrite wfs_kw, existing_rot_empty by exact Hn. cbn [filter_map_opt max_opt].
  destruct (negb (c_append c)); [|reflexivity].
  rewrite p_rename_kw, rename_none by (exact Q || (apply lookup_empty; exact Hn)). reflexivity.
Qed.

Lemma init_naming_empty_d_kw c q k : quiet q -> names (wfs q) = [] ->
  init_naming c (kw q k) NNumbersDirect = (Ok (NSNumD 0, number_infix 0), kw q k).
Proof.
  intros Q Hn. unfold init_naming, with_listing. rewrite tick_kw by exact Q.
  unfold get_highest_index, list_log_gz. rewrite wfs_kw, existing_rot_empty by exact Hn. reflexivity.
Qed.

Lemma numinv_first c q : quiet q -> names (wfs q) = [] -> inodes (wfs q) = [] ->
  let q2 := set_fs q (fst (create_file (wfs q) (cname c) 0%N (wnow q))) in
  let wr := {| wino := length (inodes (wfs q)); wpend := []; wcap := c_cap c |} in
  NumInv c q2 wr [] /\ cur_view q2 wr = [] /\ file_of (wfs q2) (cname c) = Some (fresh_file (wnow q)).
Proof.
  intros Q Hn Hi q2 wr.
  assert (F2 : wfs q2 = {| names := [(cname c, 0)]; inodes := [fresh_file (wnow q)] |}).
  { unfold q2. cbn [set_fs wfs]. unfold create_file. cbn [fst]. rewrite Hn, Hi. reflexivity. }
  assert (Ew : wr = {| wino := 0; wpend := []; wcap := c_cap c |}) by (unfold wr; rewrite Hi; reflexivity).
  assert (Lc : lookup (wfs q2) (cname c) = Some 0) by (rewrite F2; unfold lookup; cbn; rewrite beq_refl; reflexivity).
  rewrite Ew. split; [|split].
  - constructor.
    + exact Q.
    + rewrite F2. split.
      * intros a j. unfold lookup; cbn. destruct (beq (cname c) a); [|discriminate]. intros E; injection E as <-. lia.
      * intros a b j. unfold lookup; cbn. destruct (beq_spec (cname c) a), (beq_spec (cname c) b); try discriminate. congruence.
    + exact Lc.
    + rewrite F2. split; reflexivity.
    + cbn [length]. intros i Hi'. lia.
    + intros n j. rewrite F2. unfold lookup; cbn. destruct (beq_spec (cname c) n); [auto | discriminate].
    + apply wr_ok_nil.
    + reflexivity.
  - unfold cur_view, content, inode. rewrite F2. reflexivity.
  - unfold file_of. rewrite Lc, F2. reflexivity.
Qed.

Section Direct.
Variables (c : config) (crit : criterion).
Hypothesis Hcfg : numcfg c crit.
Hypothesis Hcap : c_cap c = None.

Lemma direct_wr q wr cl : NumInv c q wr cl -> wpend wr = [] /\ wcap wr = None.
Proof.
  intros I. pose proof (ni_wr _ _ _ _ I) as Hw. pose proof (ni_cap _ _ _ _ I) as Hc. rewrite Hcap in Hc.
  unfold wr_ok in Hw. rewrite Hc in Hw. split; assumption.
Qed.

(* ---- one rotation with a budget: rename, create ---- *)
Lemma mount_next_k q wr cl roll force n :
  NumInv c q wr cl -> force || rotation_necessary q roll = true ->
  exists r w' st',
    mount_next c (kw q (S n)) (Active (Some (mk_rs (NSNumR (N.of_nat (length cl))) roll)) wr (cname c)) force = (r, w', st') /\
    ( (exists q' n' wr' roll', w' = kw q' (S n') /\ r = Ok tt
         /\ st' = Active (Some (mk_rs (NSNumR (N.of_nat (length (cl ++ [cur_view q wr])))) roll')) wr' (cname c)
         /\ NumInv c q' wr' (cl ++ [cur_view q wr]) /\ cur_view q' wr' = [] /\ roll_size_ok roll' 0 /\ same_env q q'
         /\ (forall m cur, roll = RSize m cur -> exists cur', roll' = RSize m cur'))
      \/ (exists qd v, w' = kw qd 0 /\ quiet qd /\ fs_wf (wfs qd) /\ reader_view_opt c (wfs qd) (fst v) (snd v)
            /\ oflat v = concat cl ++ cur_view q wr /\ length (fst v) <= S (length cl)) ).
Proof.
  intros I Hnec. destruct Hcfg as [Hrot [Hts [Hlink _]]].
  destruct (direct_wr q wr cl I) as [Hp Hc0]. pose proof (ni_quiet _ _ _ _ I) as Q.
  destruct (rotate_numinv c q wr cl (wnow q) I) as [f1 [Er [L1c RI]]].
  rewrite (mount_next_numr_kw c q (mk_rs (NSNumR (N.of_nat (length cl))) roll) wr force _ (S n) f1 Hts Hlink Q Hp eq_refl Hnec Er L1c).
  destruct n as [|n'].
  - (* killed at the rename *)
    destruct (mount_tail_dead c (kw q 0) (mk_rs (NSNumR (N.of_nat (length cl))) roll) wr (cname c)
                (NSNumR (N.of_nat (length cl) + 1)) (Ok cur_infix) (dead_kw q Q)) as [r [a [st' E]]].
    exists r, (kw (set_acts q a) 0), st'. split; [exact E|]. right.
    destruct (numinv_view c q wr cl I Hp) as [W V].
    exists (set_acts q a), (cl, Some (cur_view q wr)). split; [reflexivity|]. split; [exact Q|]. split; [exact W|]. split; [exact V|].
    split; [reflexivity | cbn [fst]; lia].
  - cbn [mk_rs rs_bg rs_cleanup rs_roll cleanup_or_queue cleanup_impl]. eexists _, _, _. split; [reflexivity|].
    destruct n' as [|n'']; cbn [eff_fs].
    + (* killed at the creation of the new current file *)
      right. destruct (rename_view c q wr cl f1 I Er) as [W V].
      exists (set_fs q f1), (cl ++ [content (wfs q) (wino wr)], None).
      split; [reflexivity|]. split; [apply quiet_set_fs; exact Q|]. split; [exact W|]. split; [exact V|].
      split.
      * unfold oflat, cur_view. cbn [fst snd]. rewrite concat_app, Hp. cbn [concat]. rewrite !app_nil_r. reflexivity.
      * cbn [fst]. rewrite app_length. cbn [length]. lia.
    + (* the rotation is completed *)
      left. set (q2 := set_fs (set_fs q f1) (fst (create_file f1 (cname c) 0%N (wnow q)))).
      assert (Q2 : quiet q2) by exact Q.
      assert (F3 : wfs q2 = append_ino (fst (create_file f1 (cname c) 0%N (wnow q))) (wino wr) (wpend wr)).
      { rewrite Hp, append_ino_nil_id. reflexivity. }
      destruct (RI q2 Q2 F3) as [I2 [V2 _]].
      eexists q2, n'', _, (reset_size_and_date q2 roll (cname c)).
      split; [reflexivity|]. split; [reflexivity|].
      split. { rewrite app_length, Nat.add_1_r, Nat2N.inj_succ, <- N.add_1_r. reflexivity. }
      split; [exact I2|]. split; [exact V2|].
      split. { destruct roll; cbn; auto. }
      split. { apply (same_env_set_fs q). exact Q. }
      intros m cur ->. cbn. eauto.
Qed.

(* ---- one write(2) of the unbuffered writer with a budget ---- *)
Lemma w_write_k q wr cl b n :
  NumInv c q wr cl ->
  exists w', w_write (kw q (S n)) wr b = (true, w', wr) /\
   ( (exists q' n', w' = kw q' (S n') /\ NumInv c q' wr cl /\ cur_view q' wr = cur_view q wr ++ b /\ same_env q q')
     \/ w' = kw q 0 ).
Proof.
  intros I. destruct (direct_wr q wr cl I) as [Hp Hc0]. pose proof (ni_quiet _ _ _ _ I) as Q.
  apply (w_write_direct_kw (fun q' => NumInv c q' wr cl) q wr b n Q Hp Hc0 I).
  intros x q' F S. exact (numinv_append c q q' wr wr cl x I F S eq_refl eq_refl (ni_wr _ _ _ _ I)).
Qed.

(* ---- a write on an active writer with a budget: every kill point ---- *)
Lemma write_active_k q wr cl roll b n :
  NumInv c q wr cl -> roll_size_ok roll (length (cur_view q wr)) ->
  exists r w' s' rot', write_buffer (st_of c (length cl) roll wr) (kw q (S n)) b = (r, w', s', rot') /\
  ( (exists q' n' wr' roll' cl', w' = kw q' (S n') /\ r = Ok tt /\ s' = st_of c (length cl') roll' wr'
       /\ rot' = rotation_necessary q roll
       /\ NumInv c q' wr' cl' /\ roll_size_ok roll' (length (cur_view q' wr')) /\ same_env q q'
       /\ (cl', cur_view q' wr') = (if rotation_necessary q roll then (cl ++ [cur_view q wr], b) else (cl, cur_view q wr ++ b))
       /\ (forall m cur, roll = RSize m cur -> exists cur', roll' = RSize m cur'))
    \/ (exists qd v, w' = kw qd 0 /\ quiet qd /\ fs_wf (wfs qd) /\ reader_view_opt c (wfs qd) (fst v) (snd v)
          /\ oflat v = concat cl ++ cur_view q wr /\ length (fst v) <= S (length cl)) ).
Proof.
  intros I Hsz. destruct (direct_wr q wr cl I) as [Hp Hc0]. pose proof (ni_quiet _ _ _ _ I) as Q.
  rewrite write_buffer_eq. unfold wb_active. cbn [st_of f_cfg f_inner mk_rs rs_roll]. rewrite rot_nec_kw.
  destruct (rotation_necessary q roll) eqn:Er.
  - (* the write rotates first *)
    destruct (mount_next_k q wr cl roll false n I Er) as (r1 & w1 & st1 & E1 & M). rewrite E1.
    destruct M as [(q1 & n1 & wr1 & roll1 & -> & -> & -> & I1 & V1 & Z1 & S1 & R1) | (qd & v & -> & D)].
    + unfold wb_tail.
      destruct (w_write_k q1 wr1 (cl ++ [cur_view q wr]) b n1 I1) as [w2 [Ew Out]]. rewrite Ew.
      eexists _, w2, _, true. split; [reflexivity|].
      destruct Out as [[q2 [n2 [-> [I2 [V2 S2]]]]] | ->].
      * left. exists q2, n2, wr1, (increase_size roll1 (N.of_nat (length b))), (cl ++ [cur_view q wr]).
        split; [reflexivity|]. split; [reflexivity|]. split; [reflexivity|]. split; [reflexivity|].
        split; [exact I2|]. rewrite V1 in V2. cbn [app] in V2.
        split. { rewrite V2. apply (roll_size_increase roll1 0 (length b)). exact Z1. }
        split; [eapply same_env_trans; eassumption|].
        split; [rewrite V2; reflexivity|].
        intros m cur Hr. destruct (R1 m cur Hr) as [cur' ->]. cbn. eauto.
      * right. destruct (direct_wr q1 wr1 _ I1) as [Hp1 _]. destruct (numinv_view c q1 wr1 _ I1 Hp1) as [W V].
        exists q1, (cl ++ [cur_view q wr], Some (cur_view q1 wr1)).
        split; [reflexivity|]. split; [apply I1|]. split; [exact W|]. split; [exact V|].
        split.
        -- unfold oflat. cbn [fst snd]. rewrite V1, concat_app. cbn [concat]. rewrite !app_nil_r. reflexivity.
        -- cbn [fst]. rewrite app_length. cbn [length]. lia.
    + destruct (wb_tail_dead (st_of c (length cl) roll wr) b r1 (kw qd 0) st1 true (dead_kw qd (proj1 D))) as [r [s' ET]].
      exists r, (kw qd 0), s', true. split; [exact ET|]. right. exists qd, v. split; [reflexivity | exact D].
  - (* no rotation *)
    rewrite mount_next_idle by (rewrite rot_nec_kw; exact Er). unfold wb_tail.
    destruct (w_write_k q wr cl b n I) as [w2 [Ew Out]]. rewrite Ew.
    eexists _, w2, _, false. split; [reflexivity|].
    destruct Out as [[q2 [n2 [-> [I2 [V2 S2]]]]] | ->].
    + left. exists q2, n2, wr, (increase_size roll (N.of_nat (length b))), cl.
      split; [reflexivity|]. split; [reflexivity|]. split; [reflexivity|]. split; [reflexivity|].
      split; [exact I2|].
      split. { rewrite V2, app_length. apply roll_size_increase. exact Hsz. }
      split; [exact S2|]. split; [rewrite V2; reflexivity|].
      intros m cur ->. cbn. eauto.
    + right. destruct (numinv_view c q wr cl I Hp) as [W V].
      exists q, (cl, Some (cur_view q wr)). split; [reflexivity|]. split; [exact Q|]. split; [exact W|]. split; [exact V|].
      split; [reflexivity | cbn [fst]; lia].
Qed.

(* ---- the first write: initialisation in the empty directory with a budget ---- *)
Lemma initialize_empty_k q n :
  quiet q -> names (wfs q) = [] -> inodes (wfs q) = [] ->
  match n with
  | 0 => exists r a, initialize c (kw q 1) = (r, set_acts (kw q 0) a)
  | S n' => exists q' wr roll,
      initialize c (kw q (S (S n'))) = (Ok (Active (Some (mk_rs (NSNumR 0) roll)) wr (cname c)), kw q' (S n'))
      /\ NumInv c q' wr [] /\ cur_view q' wr = [] /\ roll_size_ok roll 0 /\ same_env q q'
      /\ (forall m, crit = CSize m -> roll = RSize m 0)
  end.
Proof.
  intros Q Hn Hi. destruct Hcfg as [Hrot [Hts [Hlink _]]].
  assert (Lc : lookup (wfs q) (name_of c q (Some cur_infix)) = None) by (apply lookup_empty; exact Hn).
  pose proof (fun k => open_log_file_fresh_kw c q k (Some cur_infix) Q Hlink Lc) as Eo.
  rewrite (name_of_nm c q cur_infix Hts) in Eo. fold (cname c) in Eo.
  destruct n as [|n'].
  - exact (initialize_dies c _ _ _ _ _ _ _ _ _ Hrot (init_naming_empty_kw c q 1 Hts Q Hn) (Eo 1) (dead_kw q Q)).
  - destruct (numinv_first c q Q Hn Hi) as [I2 [V2 Fo]]. specialize (Eo (S (S n'))). cbn [eff_fs] in Eo.
    eexists _, _, _. split; [|split; [exact I2|]; split; [exact V2|]].
    + apply (initialize_steps c _ _ _ _ _ _ _ _ _ _ _ _ _ Hrot (init_naming_empty_kw c q _ Hts Q Hn) Eo
               (roll_new_kw _ (S n') crit (c_append c) _ _ (quiet_set_fs q _ Q) Fo) eq_refl).
    + cbn [fresh_file fdata fborn length]. split; [destruct (c_append c); apply (roll_of_size_ok crit 0)|].
      split; [apply same_env_set_fs; exact Q|]. intros m ->. destruct (c_append c); reflexivity.
Qed.

(* ---- a write, from either kind of state ---- *)
Lemma write_rel_k x a b q n :
  s_w x = kw q (S n) -> Rel c crit (with_w x q) a ->
  exists s r w' s' rot, s_flw x = Some s /\ f_poisoned s = false /\
    write_buffer s (s_w x) b = (r, w', s', rot) /\
    ( (r = Ok tt /\ KRel c crit {| s_flw := Some s'; s_w := w'; s_tl := []; s_dead := s_dead x |} (a_step a (OWrite b) rot))
      \/ (exists v, DeadDir c w' v /\ oflat v = flat a /\ length (fst v) <= S (apot a)) ).
Proof.
  intros Ew [Ht [Ha R]]. cbn [with_w s_tl s_w s_flw] in Ht, Ha, R. rewrite Ew. destruct a as [[cl cu]|].
  - destruct R as [wr [roll [Es [I [V [Z RS]]]]]]. rewrite <- V in Z.
    destruct (write_active_k q wr cl roll b n I Z) as [r [w' [s' [rot' [E Out]]]]].
    exists (st_of c (length cl) roll wr), r, w', s', rot'. split; [exact Es|]. split; [reflexivity|]. split; [exact E|].
    destruct Out as [[q' [n' [wr' [roll' [cl' [-> [-> [-> [-> [I' [Z' [S' [V' R']]]]]]]]]]]]] | [qd [v [-> [Qd [W [Vw [Fl Len]]]]]]]].
    + left. split; [reflexivity|]. exists q', n'. split; [reflexivity|].
      split; [reflexivity|]. split; [cbn [with_w s_w]; exact (same_env_acts _ _ S' Ha)|].
      cbn [a_step]. rewrite V in V'.
      destruct (rotation_necessary q roll); injection V' as <- V''; (exists wr', roll'; cbn [with_w s_flw s_w];
        split; [reflexivity|]; split; [exact I'|]; split; [exact V''|]; split; [rewrite <- V''; exact Z'|];
        exact (rsize_kept _ _ _ RS R')).
    + right. exists v. split; [split; [apply dead_kw; exact Qd | split; [exact W | exact Vw]]|].
      split; [rewrite Fl, V; reflexivity | exact Len].
  - destruct R as [Es [Q [Hn Hi]]].
    pose proof (initialize_empty_k q n Q Hn Hi) as IE. destruct n as [|n'].
    + destruct IE as [r0 [a0 Ei]].
      destruct (wb_initial_dead (new_flw c) (kw q 1) b r0 _ eq_refl Ei (dead_kw q Q)) as [r [w' [s' [rot [E F]]]]].
      exists (new_flw c), r, w', s', rot. split; [exact Es|]. split; [reflexivity|]. split; [exact E|].
      right. exists ([], None). destruct F as [D F]. cbn [kw set_kill set_acts wfs] in F.
      destruct (empty_view c (wfs w')) as [W V]; [rewrite F; exact Hn|].
      split; [split; [exact D | split; [exact W | exact V]]|]. split; [reflexivity | cbn; lia].
    + destruct IE as [q1 [wr [roll [Ei [I [V [Z [S1 RS]]]]]]]].
      assert (Z0 : roll_size_ok roll (length (cur_view q1 wr))) by (rewrite V; exact Z).
      destruct (write_active_k q1 wr [] roll b n' I Z0) as [r [w' [s' [rot' [E Out]]]]].
      exists (new_flw c), r, w', s', rot'. split; [exact Es|]. split; [reflexivity|].
      split. { rewrite (write_buffer_init c (kw q (S (S n'))) b _ _ _ (kw q1 (S n')) Ei). exact E. }
      destruct Out as [[q' [n2 [wr' [roll' [cl' [-> [-> [-> [-> [I' [Z' [S' [V' R']]]]]]]]]]]]] | [qd [v [-> [Qd [W [Vw [Fl Len]]]]]]]].
      * left. split; [reflexivity|]. exists q', n2. split; [reflexivity|].
        split; [reflexivity|]. split; [cbn [with_w s_w]; exact (same_env_acts _ _ (same_env_trans _ _ _ S1 S') Ha)|].
        cbn [a_step]. rewrite V in V'. cbn [app] in V'.
        destruct (rotation_necessary q1 roll); injection V' as <- V''; (exists wr', roll'; cbn [with_w s_flw s_w];
          split; [reflexivity|]; split; [exact I'|]; split; [exact V''|]; split; [rewrite <- V''; exact Z'|]).
        -- intros m Hm. rewrite (RS m Hm) in R'. destruct (R' m 0%N eq_refl) as [k' ->]; eauto.
        -- intros m Hm. rewrite (RS m Hm) in R'. destruct (R' m 0%N eq_refl) as [k' ->]; eauto.
      * right. exists v. split; [split; [apply dead_kw; exact Qd | split; [exact W | exact Vw]]|].
        split; [rewrite Fl, V; reflexivity | exact Len].
Qed.

Lemma krel_flw x a : KRel c crit x a -> exists s, s_flw x = Some s /\ f_cfg s = c.
Proof.
  intros [q [n [_ [_ [_ R]]]]]. cbn [with_w s_flw] in R.
  destruct a as [[cl cu]|]; [destruct R as [wr [roll [Es _]]] | destruct R as [Es _]]; rewrite Es; eexists; split; reflexivity.
Qed.

Lemma step_sync_k x a o : KRel c crit x a -> step x o = sync_step x o.
Proof.
  intros K. destruct (krel_flw x a K) as [s [Es Ec]]. destruct Hcfg as [_ [Hts [_ Ha]]].
  apply (step_sync_cfg x o s Es); rewrite Ec; assumption.
Qed.

(* ---- one basic operation of a process with a budget: it either completes (and is acknowledged), or the process
        dies in it, and then the directory holds exactly what was acknowledged before ---- *)
Lemma kstep x a o : KRel c crit x a -> basic_op o ->
  let '(x', ob) := step x o in
  (alive (s_w x') = true /\ KRel c crit x' (a_step a o (rot_of ob)))
  \/ (alive (s_w x') = false /\ exists v, DeadDir c (s_w x') v /\ oflat v = flat a /\ length (fst v) <= S (apot a)).
Proof.
  intros K Hb. rewrite (step_sync_k x a o K). destruct K as [q [n [Ew R]]].
  destruct o; try contradiction; cbn [sync_step].
  - (* OWrite *)
    destruct (write_rel_k x a b q n Ew R) as [s [r [w' [s' [rot [Es [Hp [E Out]]]]]]]].
    rewrite Es, Hp. pose proof (proj1 R) as Ht. cbn [with_w s_tl] in Ht. rewrite Ht. cbn [app]. rewrite E. cbn [rot_of].
    destruct Out as [[-> K'] | [v [D [Fl Len]]]].
    + left. split; [|exact K']. destruct K' as [q' [n' [E' _]]]. cbn [s_w] in E' |- *. rewrite E'. reflexivity.
    + right. cbn [s_w].
      rewrite report_write_dead by apply D. split; [apply dead_not_alive; apply D|]. exists v. auto.
  - (* OPlain *)
    destruct (write_rel_k x a b q n Ew R) as [s [r [w' [s' [rot [Es [Hp [E Out]]]]]]]].
    rewrite Es, Hp, E. cbn [rot_of]. pose proof (proj1 R) as Ht. cbn [with_w s_tl] in Ht. rewrite Ht.
    destruct Out as [[-> K'] | [v [D [Fl Len]]]].
    + left. split; [|exact K']. destruct K' as [q' [n' [E' _]]]. cbn [s_w] in E' |- *. rewrite E'. reflexivity.
    + right. cbn [s_w]. split; [apply dead_not_alive; apply D|]. exists v. auto.
  - (* OFlush *)
    destruct R as [Ht [Ha R]]. cbn [with_w s_tl s_w s_flw] in Ht, Ha, R. destruct a as [[cl cu]|].
    + destruct R as [wr [roll [Es [I [V [Z RS]]]]]]. rewrite Es. cbn [st_of f_poisoned].
      destruct (direct_wr q wr cl I) as [Pw _].
      unfold flush_state, st_of. cbn [f_inner]. rewrite w_flush_nop by exact Pw. rewrite (writer_eta wr Pw).
      cbn [rot_of a_step s_w]. left. split; [rewrite Ew; reflexivity|].
      exists q, n. split; [exact Ew|]. split; [exact Ht|]. split; [exact Ha|].
      exists wr, roll. cbn [with_w s_flw s_w]. split; [reflexivity|]. split; [exact I|]. split; [exact V|]. split; assumption.
    + destruct R as [Es R]. rewrite Es. cbn [new_flw f_poisoned flush_state f_inner rot_of a_step s_w].
      left. split; [rewrite Ew; reflexivity|]. exists q, n. split; [exact Ew|]. split; [exact Ht|]. split; [exact Ha|].
      split; [reflexivity | exact R].
  - (* OTrigger *)
    destruct R as [Ht [Ha R]]. cbn [with_w s_tl s_w s_flw] in Ht, Ha, R. destruct a as [[cl cu]|].
    + destruct R as [wr [roll [Es [I [V [Z RS]]]]]]. rewrite Es. cbn [st_of f_poisoned f_cfg f_inner]. rewrite Ew.
      destruct (mount_next_k q wr cl roll true n I eq_refl) as (r1 & w1 & st1 & E1 & M). rewrite E1.
      destruct M as [(q' & n' & wr' & roll' & -> & -> & -> & I' & V' & Z' & S' & R') | (qd & v & -> & Qd & W & Vw & Fl & Len)].
      * left. cbn [rot_of a_step code_of with_inner f_cfg f_poisoned s_w]. split; [reflexivity|].
        exists q', n'. split; [reflexivity|]. split; [exact Ht|]. split; [cbn [with_w s_w]; exact (same_env_acts _ _ S' Ha)|].
        rewrite V in *. exists wr', roll'. cbn [with_w s_flw s_w].
        split; [reflexivity|]. split; [exact I'|]. split; [exact V'|]. split; [exact Z'|].
        exact (rsize_kept _ _ _ RS R').
      * right. cbn [s_w fst]. destruct r1; cbn [s_w]; (split; [reflexivity|]); exists v;
          (split; [split; [apply dead_kw; exact Qd | split; [exact W | exact Vw]]|]; split; [rewrite Fl, V; reflexivity | exact Len]).
    + destruct R as [Es R]. rewrite Es. cbn [new_flw f_poisoned f_cfg f_inner mount_next with_inner rot_of a_step code_of s_w].
      left. split; [rewrite Ew; reflexivity|]. exists q, n. split; [exact Ew|]. split; [exact Ht|]. split; [exact Ha|].
      split; [reflexivity | exact R].
  - (* OTick *)
    cbn [rot_of a_step s_w]. left. rewrite Ew. split; [reflexivity|].
    exists (set_now q (wnow q + dt)%Z), n. split; [reflexivity|].
    destruct R as [Ht [Ha R]]. cbn [with_w s_tl s_w s_flw] in Ht, Ha, R.
    split; [exact Ht|]. split; [exact Ha|]. destruct a as [[cl cu]|].
    + destruct R as [wr [roll [Es [I [V [Z RS]]]]]]. exists wr, roll. cbn [with_w s_flw s_w].
      split; [exact Es|]. split; [apply (numinv_env c q); [exact I | reflexivity | apply quiet_set_now; apply I]|].
      split; [exact V|]. split; assumption.
    + cbn [with_w s_flw s_w]. destruct R as [Es [Q [Hn Hi]]]. split; [exact Es|]. split; [apply quiet_set_now; exact Q|]. split; assumption.
  - (* OSnap *)
    cbn [rot_of a_step]. left. split; [rewrite Ew; reflexivity|]. exists q, n. split; [exact Ew | exact R].
Qed.

Lemma crash_alive x a : KRel c crit x a ->
  exists v, IdleO c (fst (step x OCrash)) v /\ oflat v = flat a /\ length (fst v) = apot a.
Proof.
  intros [q [n [Ew [Ht [Ha R]]]]]. rewrite step_crash. cbn [sync_step fst]. cbn [with_w s_tl s_w s_flw] in Ht, Ha, R.
  unfold IdleO. cbn [s_tl s_w s_flw]. rewrite Ew. cbn [kw set_kill set_acts wfs wacts].
  destruct a as [[cl cu]|].
  - destruct R as [wr [roll [Es [I [V [Z RS]]]]]]. destruct (direct_wr q wr cl I) as [Pw _].
    destruct (numinv_view c q wr cl I Pw) as [W Vw]. rewrite V in Vw. pose proof (ni_quiet _ _ _ _ I) as [Qf _].
    exists (cl, Some cu). split; [|split; reflexivity].
    split; [reflexivity|]. split; [reflexivity|]. split; [reflexivity|]. split; [split; [exact Qf | reflexivity]|].
    split; [exact W | exact Vw].
  - destruct R as [Es [[Qf _] [Hn Hi]]]. destruct (empty_view c (wfs q) Hn) as [W Vw].
    exists ([], None). split; [|split; reflexivity].
    split; [reflexivity|]. split; [reflexivity|]. split; [reflexivity|]. split; [split; [exact Qf | reflexivity]|].
    split; [exact W | exact Vw].
Qed.

Lemma crash_dead x v : DeadDir c (s_w x) v -> IdleO c (fst (step x OCrash)) v.
Proof.
  intros [[_ Df] [W V]]. rewrite step_crash. cbn [sync_step fst]. unfold IdleO. cbn [s_tl s_w s_flw set_kill set_acts wfs wacts].
  split; [reflexivity|]. split; [reflexivity|]. split; [reflexivity|]. split; [split; [exact Df | reflexivity]|].
  split; [exact W | exact V].
Qed.

Lemma arm_krel x a k : Rel c crit x a -> KRel c crit (fst (step x (OSetKill k))) a.
Proof.
  intros R. rewrite (step_sync_rel c crit x a _ Hcfg R). cbn [sync_step fst].
  exists (s_w x), k. split; [reflexivity|]. unfold with_w. cbn [s_flw s_tl s_dead]. destruct x; exact R.
Qed.

(* ---- the whole history of the killed process ---- *)
Lemma armed t0 off ops1 k : Forall basic_op ops1 ->
  exists a1, KRel c crit (fst (run (fst (step (sys0 t0 off) (OStart c))) (ops1 ++ [OSetKill k]))) a1
    /\ flat a1 = written ops1 /\ apot a1 <= length ops1.
Proof.
  exact (armed_of_kstep (KRel c crit) (Rel c crit) _ ops1 k (start_rel c crit t0 off) (run_rel c crit Hcfg) (fun x a => arm_krel x a k)).
Qed.

Lemma kill_history t0 off ops1 k ops2 : Forall basic_op ops1 -> Forall basic_op ops2 ->
  exists v, IdleO c (fst (run (sys0 t0 off) (OStart c :: ops1 ++ [OSetKill k] ++ ops2 ++ [OCrash]))) v
    /\ oflat v = written ops1 ++ acked (fst (run (sys0 t0 off) (OStart c :: ops1 ++ [OSetKill k]))) ops2
    /\ length (fst v) <= S (length ops1 + length ops2).
Proof.
  intros Hb1 Hb2. rewrite !fst_run_cons. destruct (armed t0 off ops1 k Hb1) as [a1 [K2 [F1 P1]]].
  exact (history_of_kstep oview (KRel c crit) (fun f v => fs_wf f /\ reader_view_opt c f (fst v) (snd v)) oflat (fun v => length (fst v)) kstep
           (IdleO c) _ ops1 k ops2 a1 crash_alive crash_dead K2 F1 P1 Hb2).
Qed.

Lemma acked_prefix_k : forall ops x a, KRel c crit x a -> Forall basic_op ops ->
  exists j, acked x ops = written (firstn j ops).
Proof. exact (acked_prefix_of_kstep oview (KRel c crit) (fun f v => fs_wf f /\ reader_view_opt c f (fst v) (snd v)) oflat (fun v => length (fst v)) kstep). Qed.

Lemma kill_history_prefix t0 off ops1 k ops2 : Forall basic_op ops1 -> Forall basic_op ops2 ->
  exists j, acked (fst (run (sys0 t0 off) (OStart c :: ops1 ++ [OSetKill k]))) ops2 = written (firstn j ops2).
Proof.
  intros Hb1 Hb2. rewrite !fst_run_cons. destruct (armed t0 off ops1 k Hb1) as [a1 [K2 _]].
  exact (acked_prefix_k ops2 _ a1 K2 Hb2).
Qed.

End Direct.

(* After any history  OStart c :: ops1 ++ [OSetKill k] ++ ops2 ++ [OCrash]  from the empty directory
   (Numbers naming, no cleanup, direct mode; ops1, ops2 any basic operations; any kill point k), the directory read as
   r00000, r00001, ..., then rCURRENT if it exists, holds exactly the acknowledged records: the payloads written
   by ops1 and those written by the operations of ops2 after which the process was still alive.  Nothing is lost,
   nothing else is there (in the model a write effect is atomic: the record whose write was killed is not in the file). *)
Theorem numbers_kill_keeps_acked c crit t0 off ops1 k ops2 :
  numcfg c crit -> c_cap c = None -> Forall basic_op ops1 -> Forall basic_op ops2 ->
  let x1 := fst (run (sys0 t0 off) (OStart c :: ops1 ++ [OSetKill k])) in
  let xe := fst (run (sys0 t0 off) (OStart c :: ops1 ++ [OSetKill k] ++ ops2 ++ [OCrash])) in
  exists closed ocur,
    reader_view_opt c (wfs (s_w xe)) closed ocur
    /\ concat closed ++ (match ocur with Some cu => cu | None => [] end) = written ops1 ++ acked x1 ops2.
Proof.
  intros Hcfg Hcap Hb1 Hb2 x1 xe.
  destruct (kill_history c crit Hcfg Hcap t0 off ops1 k ops2 Hb1 Hb2) as [[cl ocu] [Id [F _]]].
  exists cl, ocu. split; [apply Id | exact F].
Qed.
Print Assumptions numbers_kill_keeps_acked.

(* what is acknowledged is what a prefix of ops2 wrote *)
Theorem acked_is_prefix c crit t0 off ops1 k ops2 :
  numcfg c crit -> c_cap c = None -> Forall basic_op ops1 -> Forall basic_op ops2 ->
  exists j, acked (fst (run (sys0 t0 off) (OStart c :: ops1 ++ [OSetKill k]))) ops2 = written (firstn j ops2).
Proof. intros Hcfg Hcap. apply (kill_history_prefix c crit Hcfg Hcap). Qed.
Print Assumptions acked_is_prefix.
