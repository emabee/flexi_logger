(* NumbersDirect naming WITH a cleanup strategy (numdkcfg; invariant NumDKInv / RelDK of NumDCleanupRun.v):
   - "every file the logger creates is named as documented" (NamesDocumented.v does this for Numbers with cleanup, and for
     NumbersDirect without): the oracle Oracles/O_Names.name_documented accepts every name in the directory - the numbered
     files r<i> and the archives r<i>.gz that the cleanup makes - at every point of every history
     (numbersdirect_cleanup_names_documented_always), in every snapshot (numbersdirect_cleanup_snapshots_documented) and
     after the stop (numbersdirect_cleanup_names_documented);
   - "the listing returns exactly the existing family files the selector asks for, archives included" (ListingExact.v:
     numbers_listing_exact for Numbers with cleanup): numbersdirect_cleanup_listing_exact; and since there is no rCURRENT
     file in this naming, with_r_current and an admissible custom current infix select nothing
     (numbersdirect_cleanup_listing_no_current).
   Hypothesis not_gz c (= sfx_ok (c_spec c)): the family's suffix is not "gz" and does not end with ".gz".  It IMPLIES the
   side condition dside of numbersdirect_cleanup_stream (dside_sfx), so - unlike for Numbers, where kside is a
   separate hypothesis of the statements - no side condition on the view appears here. *)
Require Import FL.Base.Bytes FL.Base.BytesFacts FL.Base.PathName FL.Fs.Fs FL.Fs.FsFacts FL.Time.Civil FL.Time.TsFormat
  FL.Names.FileSpec FL.Names.NamesFacts FL.Names.SortFacts FL.Names.FamilyFacts FL.Flw.Model FL.Flw.ModelFacts
  FL.Flw.NumFs FL.Flw.NumInv FL.Flw.Run FL.Flw.RunFacts FL.Flw.NumRun FL.Oracles.O_Flw FL.Oracles.ReaderOrder
  FL.Oracles.O_Names FL.Flw.NumTheorems FL.Flw.NumListing FL.Flw.NumRestart FL.Flw.NumDInv FL.Flw.NumDRun
  FL.Flw.NumDTheorems FL.Flw.CleanupFacts FL.Flw.NumCleanupNames FL.Flw.NumCleanupStep FL.Flw.NumCleanupRun
  FL.Flw.NumCleanup FL.Flw.NumDCleanupStep FL.Flw.NumDCleanupRun FL.Flw.NumDCleanup FL.Flw.TsReader
  FL.Flw.NamesDocumented FL.Flw.ListingExact FL.Flw.ForeignSort FL.Flw.TsdListing.
From Coq Require Import ZifyN ZifyNat ZifyBool Permutation Sorted.
Open Scope nat_scope.

(* ------------------------------------------------------------------ the names of a directory of the invariant's shape *)
(* kdir over all numbered files and no rCURRENT: every name is a numbered file (plain) or an archive *)
Inductive dkcase (c : config) (f : fs) (n : bytes) : Prop :=
| DKRot (i : nat) (d : bytes) : n = rname c i -> snap_entry f n = (n, 0%N, d) -> is_reg_file f n = true -> dkcase c f n
| DKGz (i : nat) (d : bytes) : n = gname c i -> snap_entry f n = (n, 1%N, d) -> is_reg_file f n = true -> dkcase c f n.

Lemma dk_dir_cases c f files lo mid n :
  kdir c f files lo mid -> lookup f (cname c) = None -> In n (dir_names f) -> dkcase c f n.
Proof.
  intros KD Hnc I. apply dir_names_lookup in I. destruct I as [j Lj].
  destruct (kd_only _ _ _ _ _ KD n j Lj) as [->|[[i [Hi ->]]|[i [Hi ->]]]].
  - rewrite Hnc in Lj. discriminate.
  - destruct (kd_plain _ _ _ _ _ KD i Hi) as [j' [Lj' [[Pg Pd] _]]].
    apply (DKRot c f _ i (fdata (inode f j')) eq_refl); unfold snap_entry, is_reg_file, file_of; rewrite Lj', Pd, ?Pg; reflexivity.
  - destruct (kd_arch _ _ _ _ _ KD i Hi) as [j' [Lj' [_ [Pg Pd]]]].
    apply (DKGz c f _ i (fdata (inode f j')) eq_refl); unfold snap_entry, is_reg_file, file_of; rewrite Lj', Pd, ?Pg; reflexivity.
Qed.

Lemma dk_dir_documented c crit k f files lo mid :
  c_rot c = Some (crit, NNumbersDirect, k) -> fts (c_spec c) = false -> not_gz c ->
  kdir c f files lo mid -> lookup f (cname c) = None -> all_documented c f.
Proof.
  intros Hrot Hts G KD Hnc n In_. destruct (dk_dir_cases c f files lo mid n KD Hnc In_) as [i d -> _ _|i d -> _ _].
  - exact (documented_rname c crit NNumbersDirect k i Hrot eq_refl Hts G).
  - exact (documented_gname c crit NNumbersDirect k i Hrot eq_refl Hts G).
Qed.

(* ------------------------------------------------------------------ names documented *)
(* at every point of a history: the invariant knows all names of the directory *)
Lemma reldk_documented c crit k x a : numdkcfg c crit k -> not_gz c -> RelDK c crit k x a -> all_documented c (wfs (s_w x)).
Proof.
  intros (Hrot & Hts & _) G [_ [_ R]]. destruct a as [[closed cur]|].
  - destruct R as [wr [roll [_ [I _]]]].
    exact (dk_dir_documented c crit k _ _ _ _ Hrot Hts G (dk_dir _ _ _ _ _ _ I) (dk_nocur _ _ _ _ _ _ I)).
  - destruct R as [_ [_ [Hn _]]]. apply all_documented_empty. exact Hn.
Qed.

(* the states of the run *)
Lemma run_reldk c crit k t0 off ops : numdkcfg c crit k -> not_gz c -> Forall basic_op ops ->
  RelDK c crit k (fst (run (sys0 t0 off) (OStart c :: ops)))
        (a_run None ops (snd (run (fst (step (sys0 t0 off) (OStart c))) ops))).
Proof.
  intros Hcfg G Hb. cbn [run]. destruct (step (sys0 t0 off) (OStart c)) as [x0 ob0] eqn:E0.
  pose proof (start_rel_dk c crit k t0 off) as R0. rewrite E0 in R0. cbn [fst] in *.
  pose proof (run_rel_dk c crit k Hcfg ops x0 None R0 Hb (dside_sfx c k _ G)) as [R1 _].
  destruct (run x0 ops) as [x1 obs1]. cbn [fst snd] in *. exact R1.
Qed.

(* the directory after  OStart c :: ops  - the writer is still open -, for every history *)
Theorem numbersdirect_cleanup_names_documented_always c crit k t0 off ops :
  numdkcfg c crit k -> not_gz c -> Forall basic_op ops ->
  all_documented c (wfs (s_w (fst (run (sys0 t0 off) (OStart c :: ops))))).
Proof.
  intros Hcfg G Hb. exact (reldk_documented c crit k _ _ Hcfg G (run_reldk c crit k t0 off ops Hcfg G Hb)).
Qed.
Print Assumptions numbersdirect_cleanup_names_documented_always.

(* the directory that the stopped writer leaves *)
Theorem numbersdirect_cleanup_names_documented c crit k t0 off ops :
  numdkcfg c crit k -> not_gz c -> Forall basic_op ops ->
  all_documented c (wfs (s_w (fst (run (sys0 t0 off) (OStart c :: ops ++ [OStop]))))).
Proof.
  intros Hcfg G Hb. pose proof (numbersdirect_cleanup_stream c crit k t0 off ops Hcfg Hb) as T. cbv zeta in T.
  destruct (T (dside_sfx c k _ G)) as [_ [V _]]. destruct Hcfg as (Hrot & Hts & _).
  destruct (a_run None ops (snd (run (fst (step (sys0 t0 off) (OStart c))) ops))) as [[closed cur]|].
  - destruct V as [KD [_ Hnc]]. exact (dk_dir_documented c crit k _ _ _ _ Hrot Hts G KD Hnc).
  - apply all_documented_empty. exact V.
Qed.
Print Assumptions numbersdirect_cleanup_names_documented.

(* every snapshot taken during the run shows documented names only *)
Lemma run_snaps_documented_dk c crit k : numdkcfg c crit k -> not_gz c -> forall ops x a, RelDK c crit k x a -> Forall basic_op ops ->
  Forall (snap_documented c) (snd (run x ops)).
Proof.
  intros Hcfg G. induction ops as [|o r IH]; intros x a R Hb; [constructor|].
  cbn [run]. inversion Hb as [|o' r' Ho Hr]; subst.
  pose proof (step_rel_dk0 c crit k x a o Hcfg (dside_sfx c k 0 G) R Ho) as S.
  pose proof (fun K => step_snap_documented c x o Ho K (reldk_documented c crit k x a Hcfg G R)) as D.
  destruct (step x o) as [x1 ob]. cbn [snd] in D. destruct S as (R1 & _ & _ & K & _).
  specialize (IH x1 _ R1 Hr). destruct (run x1 r) as [x2 obs].
  cbn [snd] in *. constructor; [exact (D K) | exact IH].
Qed.

Theorem numbersdirect_cleanup_snapshots_documented c crit k t0 off ops :
  numdkcfg c crit k -> not_gz c -> Forall basic_op ops ->
  Forall (snap_documented c) (snd (run (sys0 t0 off) (OStart c :: ops))).
Proof.
  intros Hcfg G Hb. cbn [run]. destruct (step (sys0 t0 off) (OStart c)) as [x0 ob0] eqn:E0.
  pose proof (start_rel_dk c crit k t0 off) as R0. rewrite E0 in R0. cbn [fst] in R0.
  assert (K0 : snap_documented c ob0) by (cbn in E0; injection E0 as _ <-; exact I).
  pose proof (run_snaps_documented_dk c crit k Hcfg G ops x0 None R0 Hb) as K1. destruct (run x0 ops) as [x1 obs1]. cbn [snd] in *.
  constructor; assumption.
Qed.
Print Assumptions numbersdirect_cleanup_snapshots_documented.

(* ------------------------------------------------------------------ the listing *)
(* an archive: what the oracle's selection says (NumbersDirect) *)
Lemma gname_selected_d c crit k sel i d : c_rot c = Some (crit, NNumbersDirect, k) -> sfx_ok (c_spec c) ->
  selected sel c (gname c i, 1%N, d) = sel_gz sel.
Proof.
  intros Hrot Hsfx. unfold selected, classify_entry. rewrite Hrot. change (fixed_name_part (c_spec c) []) with (fixed0 c).
  rewrite (full_infix_gname c i Hsfx). change (1 =? 1)%N with true. cbv iota.
  rewrite (valid_number_infix NNumbersDirect None _ eq_refl). reflexivity.
Qed.

Lemma gname_filters_d off c sel i : sfx_ok (c_spec c) ->
  p_plain off c sel (gname c i) = false /\ p_gz off c sel (gname c i) = sel_gz sel
  /\ p_cur off c sel (gname c i) = false /\ p_custom off c sel (gname c i) = false.
Proof.
  intros Hsfx.
  unfold p_plain, p_gz, p_cur, p_custom. rewrite (qf_gname_plain off c i Hsfx), (qf_gname_gz off c i Hsfx), andb_true_r, andb_false_r.
  split; [reflexivity|]. split; [reflexivity|]. unfold qf. rewrite (candidate_gname c i Hsfx), andb_false_r.
  split; [reflexivity|]. destruct (sel_custom sel) as [x|]; [destruct (sel_rcur sel && beq x cur_infix)|]; reflexivity.
Qed.

(* the model's filters are pairwise disjoint on the directory, and together they select what the oracle selects; the
   filters for rCURRENT and for the custom current infix select nothing *)
Lemma dk_filters_vs_oracle off c crit k sel f n :
  c_rot c = Some (crit, NNumbersDirect, k) -> sfx_ok (c_spec c) -> custom_ok_d sel -> dkcase c f n ->
  is_reg_file f n && is_prefix (fixed0 c) n = true
  /\ p_cur off c sel n = false /\ p_custom off c sel n = false
  /\ ((p_plain off c sel n = true -> p_gz off c sel n = false)
      /\ (p_plain off c sel n || p_gz off c sel n = true -> p_cur off c sel n = false)
      /\ ((p_plain off c sel n || p_gz off c sel n) || p_cur off c sel n = true -> p_custom off c sel n = false)
      /\ ((p_plain off c sel n || p_gz off c sel n) || p_cur off c sel n) || p_custom off c sel n = selected sel c (snap_entry f n)).
Proof.
  intros Hrot G Hsel [i d -> Es Hr|i d -> Es Hr]; rewrite Es, Hr.
  - destruct (rname_filters_d off c sel i G Hsel) as (-> & -> & -> & ->).
    rewrite (rname_selected_d c crit k sel i d Hrot G), !orb_false_r, rname_shape, is_prefix_under.
    cbn [andb]. repeat split; reflexivity.
  - destruct (gname_filters_d off c sel i G) as (-> & -> & -> & ->).
    rewrite (gname_selected_d c crit k sel i d Hrot G), !orb_false_r, gname_app, rname_shape, <- app_assoc, is_prefix_under.
    cbn [orb andb]. repeat split; try reflexivity; discriminate.
Qed.

Lemma query_reldk c crit k x a sel :
  numdkcfg c crit k -> not_gz c -> custom_ok_d sel -> RelDK c crit k x a ->
  exists l, step x (OQuery sel) = (x, ObsList 0%N l) /\ oracle_listing sel c (snap_of x) l = true
    /\ (sel_plain sel = false -> sel_gz sel = false -> l = [])
    /\ (forall l0, step x (OQuery (no_current sel)) = (x, ObsList 0%N l0) -> l = l0).
Proof.
  intros Hcfg G Hsel R. rewrite !(step_sync_rel_dk c crit k x a _ Hcfg R). cbn [sync_step].
  destruct Hcfg as (Hrot & Hts & _). destruct R as [_ [_ R]]. rewrite snap_of_list. destruct a as [[closed cur]|].
  - destruct R as [wr [roll [Es [I _]]]]. rewrite Es. cbn [st_ofdk f_poisoned]. unfold query.
    cbn [st_ofdk f_cfg f_inner mk_rsk rs_naming ns_filter]. unfold with_listing.
    rewrite (tick_quiet _ (dk_quiet _ _ _ _ _ _ I)), (fixed_of_fixed0 c _ Hts), !existing_rot_filters. cbv zeta.
    fold (st_ofdk c k (length closed) roll wr). cbv beta iota. rewrite (sys_eta x _ Es).
    set (f := wfs (s_w x)) in *. set (rel := related_files f (fsfx (c_spec c)) (fixed0 c)).
    assert (Cases : forall n, In n (dir_names f) -> dkcase c f n).
    { intros n In_. exact (dk_dir_cases c f _ _ _ n (dk_dir _ _ _ _ _ _ I) (dk_nocur _ _ _ _ _ _ I) In_). }
    assert (V : forall s', custom_ok_d s' -> forall n, In n (dir_names f) -> _)
      by (intros s' Hs' n In_; exact (dk_filters_vs_oracle (woff (s_w x)) c crit k s' f n Hrot G Hs' (Cases n In_))).
    assert (InRel : forall n, In n rel -> In n (dir_names f)) by (intros n Hn; apply related_files_in in Hn; apply Hn).
    assert (Ecur : forall s', custom_ok_d s' -> filter (p_cur (woff (s_w x)) c s') rel = [] /\ filter (p_custom (woff (s_w x)) c s') rel = []).
    { intros s' Hs'. split; apply ForeignSort.filter_none; intros n Hn; destruct (V s' Hs' n (InRel n Hn)) as (_ & V1 & V2 & _); assumption. }
    eexists. split; [reflexivity|]. split; [|split].
    + apply generic_oracle.
      * intros n In_. exact (proj1 (V sel Hsel n In_)).
      * intros n In_. exact (proj2 (proj2 (proj2 (V sel Hsel n In_)))).
    + intros Hp Hg. destruct (Ecur sel Hsel) as [-> ->]. fold rel. unfold p_plain, p_gz. rewrite Hp, Hg. cbn [andb].
      rewrite !filter_false. reflexivity.
    + intros l0 E0. injection E0 as <-. fold rel.
      assert (Hs0 : custom_ok_d (no_current sel)) by exact Logic.I.
      destruct (Ecur sel Hsel) as [-> ->]. destruct (Ecur _ Hs0) as [-> ->]. reflexivity.
  - destruct R as [Es [Q [Hn _]]]. rewrite Es. cbn [new_flw f_poisoned]. unfold query. cbn [new_flw f_cfg f_inner]. rewrite Hrot.
    unfold with_listing. rewrite (tick_quiet _ Q), !existing_rot_empty by exact Hn.
    fold (new_flw c). cbv beta iota. rewrite (sys_eta x _ Es). exists []. split; [reflexivity|]. split; [|split].
    + unfold oracle_listing, expected_listing, snap_list, dir_names. rewrite Hn. reflexivity.
    + reflexivity.
    + intros l0 E0. injection E0 as <-. reflexivity.
Qed.

(* THE THEOREM.  For every history of basic operations, every selector (custom_ok_d) and every cleanup strategy: in the
   state after  OStart c :: ops  the listing operation returns normally (code 0), changes nothing, and the oracle accepts
   its result for the snapshot of the directory: sorted, the result is exactly expected_listing sel c (snapshot) - the
   selected ones among the numbered files (the one being written included) and the archives. *)
Theorem numbersdirect_cleanup_listing_exact c crit k t0 off ops sel :
  numdkcfg c crit k -> not_gz c -> Forall basic_op ops -> custom_ok_d sel ->
  let x := fst (run (sys0 t0 off) (OStart c :: ops)) in
  exists l, step x (OQuery sel) = (x, ObsList 0%N l)
            /\ oracle_listing sel c (snap_of x) l = true
            /\ sort_names l = expected_listing sel c (snap_of x).
Proof.
  intros Hcfg G Hb Hsel x.
  destruct (query_reldk c crit k x _ sel Hcfg G Hsel (run_reldk c crit k t0 off ops Hcfg G Hb)) as [l [E [O _]]].
  exists l. split; [exact E|]. split; [exact O|]. apply names_beq_eq. exact O.
Qed.
Print Assumptions numbersdirect_cleanup_listing_exact.

(* there is no rCURRENT file in this naming: asking for it (with_r_current, a custom current infix) changes nothing, and a
   selector that asks for nothing else gets the empty list *)
Theorem numbersdirect_cleanup_listing_no_current c crit k t0 off ops sel :
  numdkcfg c crit k -> not_gz c -> Forall basic_op ops -> custom_ok_d sel ->
  let x := fst (run (sys0 t0 off) (OStart c :: ops)) in
  exists l, step x (OQuery sel) = (x, ObsList 0%N l) /\ step x (OQuery (no_current sel)) = (x, ObsList 0%N l)
            /\ (sel_plain sel = false -> sel_gz sel = false -> l = []).
Proof.
  intros Hcfg G Hb Hsel x.
  pose proof (run_reldk c crit k t0 off ops Hcfg G Hb) as R. fold x in R.
  destruct (query_reldk c crit k x _ sel Hcfg G Hsel R) as [l [E [_ [Hn Hc]]]].
  destruct (query_reldk c crit k x _ (no_current sel) Hcfg G I R) as [l0 [E0 _]].
  exists l. split; [exact E|]. split; [rewrite (Hc l0 E0); exact E0 | exact Hn].
Qed.
Print Assumptions numbersdirect_cleanup_listing_no_current.

(* ------------------------------------------------------------------ instances *)
Import String.StringSyntax.
Open Scope string_scope.

Lemma exd_not_gz k : not_gz (exd_kcfg k log_sfx).
Proof. vm_compute. reflexivity. Qed.

(* the history ex_ops of NumCleanup.v (six records, a rotation before each but the first) with the configuration of
   NumDCleanup.v, KLogGz 2 2: two archives, one closed plain file and the file being written - all documented names *)
Definition lxd_c : config := exd_kcfg (KLogGz 2 2) log_sfx.
Definition lxd_x : sys := fst (run (sys0 0 0) (OStart lxd_c :: ex_ops)).

Example numbersdirect_cleanup_names_documented_instance :
  all_documented lxd_c (wfs (s_w (fst (run (sys0 0 0) (OStart lxd_c :: ex_ops ++ [OStop])))))
  /\ all_documented lxd_c (wfs (s_w lxd_x))
  /\ sort_names (dir_names (wfs (s_w (fst (run (sys0 0 0) (OStart lxd_c :: ex_ops ++ [OStop]))))))
     = [bs "a_r00002.log.gz"; bs "a_r00003.log.gz"; bs "a_r00004.log"; bs "a_r00005.log"].
Proof.
  split; [|split; [|vm_compute; reflexivity]].
  - apply (numbersdirect_cleanup_names_documented _ (CSize 3) (KLogGz 2 2)); [apply exd_numdkcfg | apply exd_not_gz | exact ex_ops_basic].
  - apply (numbersdirect_cleanup_names_documented_always _ (CSize 3) (KLogGz 2 2)); [apply exd_numdkcfg | apply exd_not_gz | exact ex_ops_basic].
Qed.

(* a history with snapshots (exd_ops2 of NumDCleanup.v: buffering, append, triggers, ticks, age-or-size criterion, no suffix);
   the snapshot shows the archive of the first file and the file being written (the record "g" is still in the buffer) *)
Example numbersdirect_cleanup_snapshots_documented_instance :
  Forall (snap_documented exd_c2) (snd (run (sys0 0 0) (OStart exd_c2 :: exd_ops2)))
  /\ nth 8 (snd (run (sys0 0 0) (OStart exd_c2 :: exd_ops2))) (ObsRes 0 false)
     = ObsSnap [(bs "srv_a1_r00000.gz", 1%N, bs "abcdef"); (bs "srv_a1_r00001", 0%N, [])] None [].
Proof.
  split; [|vm_compute; reflexivity].
  apply (numbersdirect_cleanup_snapshots_documented exd_c2 (CAgeOrSize ADay 6) (KLogGz 1 1)); [repeat split | exact I | repeat constructor].
Qed.

(* the listing: computed ... *)
Example listing_instance_computed_dk :
  snd (step lxd_x (OQuery sel_all))
  = ObsList 0%N [bs "a_r00005.log"; bs "a_r00004.log"; bs "a_r00003.log.gz"; bs "a_r00002.log.gz"]
  /\ snd (step lxd_x (OQuery sel_log_gz)) = snd (step lxd_x (OQuery sel_all))
  /\ snd (step lxd_x (OQuery {| sel_plain := false; sel_gz := true; sel_rcur := true; sel_custom := None |}))
     = ObsList 0%N [bs "a_r00003.log.gz"; bs "a_r00002.log.gz"]
  /\ expected_listing sel_all lxd_c (snap_of lxd_x) = [bs "a_r00002.log.gz"; bs "a_r00003.log.gz"; bs "a_r00004.log"; bs "a_r00005.log"].
Proof. vm_compute. repeat split; reflexivity. Qed.

(* ... and by the theorem, for every admissible selector *)
Example listing_instance_dk sel : custom_ok_d sel ->
  exists l, step lxd_x (OQuery sel) = (lxd_x, ObsList 0%N l) /\ oracle_listing sel lxd_c (snap_of lxd_x) l = true
            /\ sort_names l = expected_listing sel lxd_c (snap_of lxd_x).
Proof.
  intros Hsel. apply (numbersdirect_cleanup_listing_exact lxd_c (CSize 3) (KLogGz 2 2) 0 0 ex_ops sel); try assumption.
  - apply exd_numdkcfg.
  - apply exd_not_gz.
  - exact ex_ops_basic.
Qed.

(* there is no rCURRENT: asking for it alone, or for the custom current infix "rCURRENT", lists nothing *)
Example listing_no_current_instance_dk :
  let sel := {| sel_plain := false; sel_gz := false; sel_rcur := true; sel_custom := Some cur_infix |} in
  custom_ok_d sel /\ snd (step lxd_x (OQuery sel)) = ObsList 0%N [].
Proof.
  cbv zeta. split; [|vm_compute; reflexivity]. intros i E. exact (number_infix_not_cur i (eq_sym E)).
Qed.

(* custom_ok_d is needed for the oracle (not a defect of the listing): a custom current infix that is the infix of a numbered
   file - here of the file being written - lists that file, as asked; the oracle knows no current infix for this naming *)
Example custom_number_infix_listed_dk :
  let sel := {| sel_plain := false; sel_gz := false; sel_rcur := false; sel_custom := Some (bs "r00005") |} in
  snd (step lxd_x (OQuery sel)) = ObsList 0%N [bs "a_r00005.log"]
  /\ expected_listing sel lxd_c (snap_of lxd_x) = []
  /\ oracle_listing sel lxd_c (snap_of lxd_x) [bs "a_r00005.log"] = false
  /\ ~ custom_ok_d sel.
Proof.
  cbv zeta. split; [vm_compute; reflexivity|]. split; [vm_compute; reflexivity|]. split; [vm_compute; reflexivity|].
  intros H. apply (H 5%N). vm_compute. reflexivity.
Qed.

(* not_gz is needed: with the suffix "log.gz" the closed files are taken for archives by the cleanup and are never compressed
   (NumDCleanup.d_sfx_log_gz_counterexample); the oracle takes ".gz" for the mark of an archive, does not find the suffix
   and rejects the names the writer creates: no name is documented, the expected listing is empty whereas the listing
   returns the three plain files, and the oracle rejects it *)
Example gz_suffix_not_documented_dk :
  let c := exd_kcfg (KGz 2) (Some (bs "log.gz")) in
  let x := fst (run (sys0 0 0) (OStart c :: ex_ops)) in
  ~ not_gz c
  /\ snap_of x = [ (bs "a_r00003.log.gz", 0%N, rec5 3); (bs "a_r00004.log.gz", 0%N, rec5 4); (bs "a_r00005.log.gz", 0%N, rec5 5) ]
  /\ name_documented c [] (bs "a_r00005.log.gz") = false
  /\ snd (step x (OQuery sel_all)) = ObsList 0%N [bs "a_r00005.log.gz"; bs "a_r00004.log.gz"; bs "a_r00003.log.gz"]
  /\ expected_listing sel_all c (snap_of x) = []
  /\ oracle_listing sel_all c (snap_of x) [bs "a_r00005.log.gz"; bs "a_r00004.log.gz"; bs "a_r00003.log.gz"] = false.
Proof. cbv zeta. split; [vm_compute; discriminate|]. vm_compute. repeat split; reflexivity. Qed.
