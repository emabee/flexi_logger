(* Numbers naming: what the directory listing of a writer that starts on a directory left behind by an earlier
   writer finds.  The directory holds r00000 .. r(n-1) and rCURRENT (reader_view): the highest index found is n-1. *)
Require Import FL.Base.Bytes FL.Base.BytesFacts FL.Base.PathName FL.Fs.Fs FL.Names.FileSpec FL.Names.NamesFacts
  FL.Names.SortFacts FL.Names.FamilyFacts FL.Flw.Model FL.Flw.ModelFacts FL.Flw.NumInv FL.Flw.Run FL.Flw.NumRun.
Open Scope nat_scope.

(* ------------------------------------------------------------------ digits *)
Definition digs (i : N) : bytes := pad_left 5 48%N (dec i).

Lemma number_infix_digs i : number_infix i = r_char :: digs i.
Proof. reflexivity. Qed.

Lemma digs_all i : all_digits (digs i) = true.
Proof.
  unfold digs, pad_left. rewrite all_digits_app, all_digits_repeat0. cbn [andb].
  unfold dec. apply dec_digits_all. reflexivity.
Qed.

Lemma digs_length i : 5 <= length (digs i).
Proof. unfold digs, pad_left. rewrite app_length, repeat_length. lia. Qed.

Lemma digs_value i : dec_value (digs i) = i.
Proof. unfold digs, pad_left. rewrite dec_value_zeros, dec_value_dec. reflexivity. Qed.

Lemma all_digits_in s c : all_digits s = true -> In c s -> is_digit c = true.
Proof.
  induction s as [|x s IH]; cbn [all_digits In]; intros H I; [destruct I|].
  apply andb_prop in H. destruct H as [H1 H2]. destruct I as [<-|I]; [exact H1 | exact (IH H2 I)].
Qed.

Lemma digs_no c i : is_digit c = false -> ~ In c (digs i).
Proof. intros H I. rewrite (all_digits_in _ _ (digs_all i) I) in H. discriminate. Qed.

Lemma digs_cons i : exists a b r, digs i = a :: b :: r /\ is_digit a = true.
Proof.
  pose proof (digs_length i) as L. pose proof (digs_all i) as A.
  destruct (digs i) as [|a [|b r]]; cbn [length] in L; try lia.
  exists a, b, r. split; [reflexivity|]. cbn [all_digits] in A. apply andb_prop in A. tauto.
Qed.

(* the number filter: "r" and one or more digits, nothing else *)
Lemma filter_num_spec off infix :
  filter_infix off IFNum infix = true <-> exists ds, infix = r_char :: ds /\ ds <> [] /\ all_digits ds = true.
Proof.
  unfold filter_infix. split.
  - destruct infix as [|a [|d ds]]; try discriminate. intros H. apply andb_prop in H. destruct H as [Ha Hd].
    apply N.eqb_eq in Ha. subst a. rewrite forallb_is_digit in Hd. exists (d :: ds). split; [reflexivity|]. split; [discriminate | exact Hd].
  - intros [ds [-> [Hne Hd]]]. destruct ds as [|d ds]; [congruence|]. rewrite forallb_is_digit, Hd. reflexivity.
Qed.

Lemma filter_num_infix off i : filter_infix off IFNum (number_infix i) = true.
Proof.
  rewrite number_infix_digs. apply filter_num_spec. exists (digs i). split; [reflexivity|]. split; [|apply digs_all].
  destruct (digs_cons i) as [a [b [r [E _]]]]. rewrite E. discriminate.
Qed.

Lemma number_infix_no_dot i : no_dot (number_infix i).
Proof.
  unfold no_dot. rewrite number_infix_digs. cbn [In]. intros [H|H]; [discriminate|].
  revert H. apply digs_no. reflexivity.
Qed.

(* parse::<u32>() of a digit string *)
Definition strip_plus (s : bytes) : bytes := match s with 43%N :: r => r | _ => s end.
Lemma parse_uint_unfold max s : parse_uint max s =
  match strip_plus s with
  | [] => None
  | _ => if all_digits (strip_plus s) then let v := dec_value (strip_plus s) in if (v <=? max)%N then Some v else None else None
  end.
Proof. reflexivity. Qed.

Lemma plus_strip (c : N) (r : bytes) : c <> 43%N -> strip_plus (c :: r) = c :: r.
Proof.
  intros H. unfold strip_plus. destruct c as [|p]; [reflexivity|].
  repeat (destruct p as [p|p|]; try reflexivity). exfalso. apply H. reflexivity.
Qed.

Lemma parse_uint_digits max s : s <> [] -> all_digits s = true ->
  parse_uint max s = if (dec_value s <=? max)%N then Some (dec_value s) else None.
Proof.
  intros Hne Hd. destruct s as [|c r]; [congruence|]. rewrite parse_uint_unfold.
  assert (Hc : c <> 43%N). { intros ->. cbn in Hd. discriminate. }
  rewrite (plus_strip c r Hc). rewrite Hd. reflexivity.
Qed.

Lemma parse_digs i : (i <= u32_max)%N -> parse_uint u32_max (digs i) = Some i.
Proof.
  intros H. rewrite parse_uint_digits.
  - rewrite digs_value. destruct (N.leb_spec i u32_max); [reflexivity | lia].
  - destruct (digs_cons i) as [a [b [r [E _]]]]. rewrite E. discriminate.
  - apply digs_all.
Qed.

(* ------------------------------------------------------------------ the names *)
Definition sfxs (sp : file_spec) : bytes := match fsfx sp with Some s => dot :: s | None => [] end.

Lemma with_suffix_sfxs sp f : with_suffix sp f = f ++ sfxs sp.
Proof. unfold with_suffix, sfxs. destruct (fsfx sp); [reflexivity | rewrite app_nil_r; reflexivity]. Qed.

Lemma rname_shape c i : rname c i = under (fixed0 c) ++ (r_char :: digs (N.of_nat i)) ++ sfxs (c_spec c).
Proof.
  unfold rname, nm. rewrite as_name_some by apply number_infix_nonempty. rewrite with_suffix_sfxs, <- app_assoc. reflexivity.
Qed.
Lemma cname_shape c : cname c = under (fixed0 c) ++ cur_infix ++ sfxs (c_spec c).
Proof.
  unfold cname, nm. rewrite as_name_some by apply cur_infix_nonempty. rewrite with_suffix_sfxs, <- app_assoc. reflexivity.
Qed.

Lemma is_prefix_under fixed z : is_prefix fixed (under fixed ++ z) = true.
Proof. destruct fixed as [|f0 fr]; [reflexivity|]. unfold under. rewrite <- app_assoc. apply is_prefix_app. Qed.

Lemma digits_of_tail i sp :
  match find_byte dot (digs i ++ sfxs sp) with Some e => firstn e (digs i ++ sfxs sp) | None => digs i ++ sfxs sp end = digs i.
Proof.
  assert (Hd : ~ In dot (digs i)) by (apply digs_no; reflexivity).
  unfold sfxs. destruct (fsfx sp) as [s|].
  - rewrite find_byte_app by exact Hd. apply firstn_length_app.
  - rewrite app_nil_r. apply find_byte_none in Hd. rewrite Hd. reflexivity.
Qed.

(* the index is read back from a listed name: the fixed name part (with "_") and "r" are stripped, the number ends
   at the first dot *)
Lemma index_of_rname c i : (N.of_nat i <= u32_max)%N ->
  index_of_listed (fixed0 c) (rname c i) = Some (N.of_nat i).
Proof.
  intros Hi. unfold index_of_listed. rewrite rname_shape.
  assert (E : under (fixed0 c) ++ (r_char :: digs (N.of_nat i)) ++ sfxs (c_spec c)
              = (match fixed0 c with [] => [r_char] | _ => fixed0 c ++ [uscore; r_char] end)
                ++ (digs (N.of_nat i) ++ sfxs (c_spec c))).
  { unfold under. destruct (fixed0 c) as [|f0 fr]; [reflexivity|]. rewrite <- !app_assoc. reflexivity. }
  rewrite E, strip_prefix_app, digits_of_tail, parse_digs by exact Hi. reflexivity.
Qed.

(* ------------------------------------------------------------------ the family test on the names of the directory *)
Lemma infix_candidate_prefix a b fixed name infix :
  infix_candidate a b fixed name = Some infix -> exists y, name = under fixed ++ infix ++ y.
Proof.
  unfold infix_candidate. intros H.
  destruct (match b with Some l => strip_suffix (dot :: l) name | None => Some name end) as [stem|] eqn:E1; [|discriminate].
  assert (N1 : exists z1, name = stem ++ z1).
  { destruct b as [l|]; [apply strip_suffix_spec in E1; eauto | injection E1 as <-; exists []; rewrite app_nil_r; reflexivity]. }
  destruct N1 as [z1 N1].
  destruct (match b, a with
            | Some l, Some s => if beq l [103%N; 122%N] && negb (beq s [103%N; 122%N]) then strip_suffix (dot :: s) stem else Some stem
            | _, _ => Some stem end) as [st|] eqn:E2; [|discriminate].
  assert (N2 : exists z2, stem = st ++ z2).
  { destruct b as [l|], a as [s|]; try (injection E2 as <-; exists []; rewrite app_nil_r; reflexivity).
    destruct (beq l [103%N; 122%N] && negb (beq s [103%N; 122%N])).
    - apply strip_suffix_spec in E2; eauto.
    - injection E2 as <-; exists []; rewrite app_nil_r; reflexivity. }
  destruct N2 as [z2 N2].
  destruct (match fixed with [] => Some st | _ => strip_prefix (fixed ++ [uscore]) st end) as [rest|] eqn:E3; [|discriminate].
  apply strip_fixed_iff in E3. destruct rest as [|r0 rr]; [discriminate|].
  set (rest := r0 :: rr) in *. clearbody rest.
  destruct (find_byte dot rest) as [e|] eqn:E4.
  - destruct (tail_ok (skipn (S e) rest)); [|discriminate]. injection H as <-.
    exists (skipn e rest ++ z2 ++ z1). rewrite N1, N2, E3. rewrite <- (firstn_skipn e rest) at 1.
    rewrite <- !app_assoc. reflexivity.
  - injection H as <-. exists (z2 ++ z1). rewrite N1, N2, E3, <- !app_assoc. reflexivity.
Qed.

(* the predicate that filter_files applies *)
Definition qf (off : Z) (sp_sfx : option bytes) (fixed : bytes) (flt : infix_filter) (o_sfx : option bytes) (n : bytes) : bool :=
  match infix_candidate sp_sfx o_sfx fixed n with None => false | Some i => filter_infix off flt i end.

Lemma filter_opt_total {A} (p : A -> option bool) (q : A -> bool) l :
  (forall x, p x = Some (q x)) -> filter_opt p l = Some (filter q l).
Proof.
  intros H. induction l as [|x l IH]; cbn [filter_opt filter]; [reflexivity|]. rewrite H, IH. reflexivity.
Qed.

Lemma filter_files_total off sp_sfx fixed files flt o_sfx :
  filter_files off sp_sfx fixed files flt o_sfx = Some (filter (qf off sp_sfx fixed flt o_sfx) files).
Proof.
  unfold filter_files. apply filter_opt_total. intros n. unfold qf.
  destruct (infix_candidate sp_sfx o_sfx fixed n); reflexivity.
Qed.

(* rCURRENT is never taken for a numbered file, whatever suffix the listing asks for *)
Lemma qf_cname off c o_sfx : qf off (fsfx (c_spec c)) (fixed0 c) IFNum o_sfx (cname c) = false.
Proof.
  unfold qf. destruct (infix_candidate (fsfx (c_spec c)) o_sfx (fixed0 c) (cname c)) as [infix|] eqn:E; [|reflexivity].
  apply infix_candidate_prefix in E. destruct E as [y E]. rewrite cname_shape in E.
  apply app_inv_head in E. unfold cur_infix in E. cbn [app] in E.
  destruct infix as [|a [|b r]]; try reflexivity. cbn [app] in E.
  injection E as _ E _. subst b. cbn [filter_infix forallb]. rewrite andb_false_r. reflexivity.
Qed.

Lemma qf_rname off c i : qf off (fsfx (c_spec c)) (fixed0 c) IFNum (fsfx (c_spec c)) (rname c i) = true.
Proof.
  unfold qf. rewrite (family_is_candidate (c_spec c) (fixed0 c) (rname c i) (number_infix (N.of_nat i))).
  - apply filter_num_infix.
  - apply family_plain_alt. exists []. split; [left; reflexivity|]. split; [apply number_infix_nonempty|].
    split; [apply number_infix_no_dot|]. rewrite rname_shape, app_nil_r, number_infix_digs, <- app_assoc. reflexivity.
Qed.

(* ------------------------------------------------------------------ the listing *)
Lemma related_files_in f sfx fixed n :
  In n (related_files f sfx fixed) <-> In n (dir_names f) /\ is_reg_file f n = true /\ is_prefix fixed n = true.
Proof.
  unfold related_files. rewrite <- in_rev, In_sort_by_key, filter_In, andb_true_iff. tauto.
Qed.

Lemma dir_names_lookup f n : In n (dir_names f) <-> exists j, lookup f n = Some j.
Proof.
  unfold dir_names, lookup. split.
  - intros I. apply in_map_iff in I. destruct I as [p [<- I]].
    destruct (find (fun q => beq (fst q) (fst p)) (names f)) as [p'|] eqn:E; [eauto|].
    pose proof (find_none _ _ E p I) as X. cbn in X. rewrite beq_refl in X. discriminate.
  - intros [j H]. destruct (find (fun q => beq (fst q) n) (names f)) as [p|] eqn:E; [|discriminate].
    apply find_some in E. destruct E as [I B]. apply beq_eq in B. subst n. apply in_map. exact I.
Qed.

Lemma filter_map_opt_in {A B} (g : A -> option B) l y :
  In y (filter_map_opt g l) <-> exists x, In x l /\ g x = Some y.
Proof.
  induction l as [|x l IH]; cbn [filter_map_opt In].
  - split; [tauto | intros [x [[] _]]].
  - destruct (g x) as [y0|] eqn:E0; cbn [In]; rewrite IH; split.
    + intros [<-|[z [Hz Ez]]]; [exists x; auto | exists z; auto].
    + intros [z [[<-|Hz] Ez]]; [left; congruence | right; eauto].
    + intros [z [Hz Ez]]; exists z; auto.
    + intros [z [[<-|Hz] Ez]]; [congruence | eauto].
Qed.

Lemma max_opt_spec l : match max_opt l with
                       | None => l = []
                       | Some m => In m l /\ forall v, In v l -> (v <= m)%N
                       end.
Proof.
  induction l as [|x l IH]; cbn [max_opt]; [reflexivity|].
  destruct (max_opt l) as [m|].
  - destruct IH as [Im Hm]. split.
    + cbn [In]. destruct (N.max_spec x m) as [[_ ->]|[_ ->]]; auto.
    + intros v [<-|Hv]; [lia|]. specialize (Hm v Hv). lia.
  - subst l. split; [left; reflexivity|]. intros v [<-|[]]. lia.
Qed.

Lemma max_opt_range l n : (forall v, In v l <-> exists i, i < n /\ v = N.of_nat i) ->
  max_opt l = match n with O => None | S k => Some (N.of_nat k) end.
Proof.
  intros H. pose proof (max_opt_spec l) as S. destruct (max_opt l) as [m|].
  - destruct S as [Im Hm]. destruct (proj1 (H m) Im) as [i [Hi ->]]. destruct n as [|k]; [lia|].
    assert (Ik : In (N.of_nat k) l) by (apply H; exists k; split; [lia | reflexivity]).
    specialize (Hm _ Ik). f_equal. lia.
  - subst l. destruct n as [|k]; [reflexivity|].
    assert (Ik : In (N.of_nat k) []) by (apply H; exists k; split; [lia | reflexivity]). destruct Ik.
Qed.

(* the highest index in a directory whose numbered files are r00000 .. r(n-1), none of them a directory, and which
   holds beside them at most the current file *)
Lemma highest_index_numbered c off f n :
  (forall i, i < n -> exists j, lookup f (rname c i) = Some j /\ fdir (inode f j) = false) ->
  (forall m j, lookup f m = Some j -> m = cname c \/ exists i, i < n /\ m = rname c i) ->
  (N.of_nat (pred n) <= u32_max)%N ->
  get_highest_index off (c_spec c) (fixed0 c) f = Some (match n with O => None | S k => Some (N.of_nat k) end).
Proof.
  intros Hcl Hon Hb.
  unfold get_highest_index, list_log_gz, existing_rot, sel_log_gz. cbn [sel_plain sel_gz sel_rcur sel_custom].
  rewrite !filter_files_total. cbn [app_opt]. rewrite !app_nil_r.
  set (rel := related_files f (fsfx (c_spec c)) (fixed0 c)).
  set (L := filter (qf off (fsfx (c_spec c)) (fixed0 c) IFNum (fsfx (c_spec c))) rel
            ++ filter (qf off (fsfx (c_spec c)) (fixed0 c) IFNum (Some gz_sfx)) rel).
  (* every listed name is a numbered file *)
  assert (A : forall m, In m L -> exists i, i < n /\ m = rname c i).
  { intros m I. unfold L in I. apply in_app_or in I.
    assert (X : exists o, In m rel /\ qf off (fsfx (c_spec c)) (fixed0 c) IFNum o m = true).
    { destruct I as [I|I]; apply filter_In in I; destruct I; eauto. }
    destruct X as [o [Ir Q]]. apply related_files_in in Ir. destruct Ir as [Id _].
    apply dir_names_lookup in Id. destruct Id as [j Lj].
    destruct (Hon m j Lj) as [->|X]; [rewrite qf_cname in Q; discriminate | exact X]. }
  (* every numbered file is listed *)
  assert (B : forall i, i < n -> In (rname c i) L).
  { intros i Hi. unfold L. apply in_or_app. left. apply filter_In. split; [|apply qf_rname].
    destruct (Hcl i Hi) as [j [Lj Pd]]. apply related_files_in. split; [apply dir_names_lookup; eauto|]. split.
    - unfold is_reg_file, file_of. rewrite Lj, Pd. reflexivity.
    - rewrite rname_shape. apply is_prefix_under. }
  f_equal. apply max_opt_range. intros v. rewrite filter_map_opt_in. split.
  - intros [m [Hm Em]]. destruct (A m Hm) as [i [Hi ->]]. rewrite index_of_rname in Em by lia.
    injection Em as <-. eauto.
  - intros [i [Hi ->]]. exists (rname c i). split; [apply B; exact Hi | apply index_of_rname; lia].
Qed.

(* the directory that a stopped writer leaves behind: the highest index in it *)
Lemma highest_index_view c off f cl cu :
  reader_view c f cl cu ->
  (N.of_nat (length cl) <= u32_max)%N ->
  get_highest_index off (c_spec c) (fixed0 c) f = Some (match length cl with O => None | S k => Some (N.of_nat k) end).
Proof.
  intros [Hcl [Hcur Hon]] Hb. apply highest_index_numbered; [|exact Hon | lia].
  intros i Hi. destruct (Hcl i Hi) as [j [Lj [[_ Pd] _]]]. eauto.
Qed.
