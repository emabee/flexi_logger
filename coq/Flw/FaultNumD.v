(* C19 with rotation, NumbersDirect naming: the model does what the specification FaultNumDSpec.simd says - for EVERY
   fault oracle and EVERY list of records (NumbersDirect naming, size criterion, direct mode, no cleanup, synchronous,
   no symlink, no start-time part in the name; both with and without append; empty records included). *)
Require FL.Flw.NumCleanupStep FL.Flw.TsReader FL.Flw.SnapFacts.
Require Import FL.Base.Bytes FL.Base.BytesFacts FL.Fs.Fs FL.Fs.FsFacts FL.Names.FileSpec FL.Flw.Model
  FL.Flw.ModelFacts FL.Flw.NumFs FL.Flw.NumInv FL.Flw.Run FL.Flw.RunFacts FL.Flw.NumRun FL.Flw.NumListing
  FL.Flw.NumRestart FL.Flw.KillFacts FL.Flw.NumKill FL.Flw.NumDInv FL.Flw.NumDRun FL.Flw.NumDRestart FL.Flw.FaultFacts
  FL.Flw.FaultRotSpec FL.Flw.FaultRotation FL.Flw.FaultNumDSpec.
From Coq Require Import ZifyN ZifyNat ZifyBool.
From Coq Require Import Sorted.
Open Scope nat_scope.

(* the directory: exactly the files r<i> for the (number, content) pairs listed *)
Definition gap_view (c : config) (f : fs) (files : list (nat * bytes)) : Prop :=
  (forall i d, In (i, d) files -> exists j, lookup f (rname c i) = Some j /\ plain (inode f j) /\ content f j = d)
  /\ (forall n j, lookup f n = Some j -> exists i d, In (i, d) files /\ n = rname c i).

Section NumD.
Variables (c : config) (m : N).
Hypothesis Hcfg : numdcfg c (CSize m).
Hypothesis Hcap : c_cap c = None.

(* the state of an initialised writer: its file is r<k>, the naming state is at k + s *)
Definition actd (k s : nat) (cur : N) (wr : writer) : inner :=
  Active (Some (mk_rs (NSNumD (N.of_nat (k + s))) (RSize m cur))) wr (rname c k).

(* ---- the rotation check of one write, computed ---- *)
Lemma mount_next_d_fw q fl k s cur wr :
  quiet q -> wpend wr = [] -> lookup (wfs q) (rname c (S (k + s))) = None ->
  mount_next c (fw q fl) (actd k s cur wr) false =
    if (m <? cur)%N then
      if fst (pop fl) then (Err, fw q (snd (pop fl)), actd k (S s) cur wr)
      else (Ok tt, fw (set_fs q (fst (create_file (wfs q) (rname c (S (k + s))) 0%N (wnow q)))) (snd (pop fl)),
            actd (S (k + s)) 0 0 {| wino := snd (create_file (wfs q) (rname c (S (k + s))) 0%N (wnow q)); wpend := []; wcap := c_cap c |})
    else (Ok tt, fw q fl, actd k s cur wr).
Proof.
  intros Q Hp L1. destruct Hcfg as [Hrot [Hts [Hlink _]]].
  unfold mount_next, actd. cbn [mk_rs rs_roll rs_naming rs_cleanup rs_bg orb rotation_necessary]. unfold size_rotation_necessary.
  destruct (m <? cur)%N; [|reflexivity].
  pose proof (mount_tail_fw c q fl (Some (number_infix (N.of_nat (k + s) + 1))) (NSNumD (N.of_nat (k + s) + 1)) m cur wr (rname c k) Q Hts Hlink Hp) as X.
  fold (nm c (number_infix (N.of_nat (k + s) + 1))) in X. rewrite rname_S in X. specialize (X L1). cbv zeta in X.
  replace (N.of_nat (k + S s)) with (N.of_nat (k + s) + 1)%N by lia.
  replace (N.of_nat (S (k + s) + 0)) with (N.of_nat (k + s) + 1)%N by lia.
  exact X.
Qed.

(* ---- the rest of write_buffer after the rotation check ---- *)
Lemma wb_active_d q fl k s cur wr r1 q1 fl1 k1 s1 cur1 wr1 b :
  mount_next c (fw q fl) (actd k s cur wr) false = (r1, fw q1 fl1, actd k1 s1 cur1 wr1) ->
  r1 <> Panic -> quiet q1 -> wcap wr1 = None ->
  exists q3,
    write_buffer (flw_of c (actd k s cur wr)) (fw q fl) b
    = ((if fst (wr_pop b fl1) then Err else Ok tt), fw q3 (snd (wr_pop b fl1)),
       flw_of c (actd k1 s1 (if fst (wr_pop b fl1) then cur1 else (cur1 + N.of_nat (length b))%N) wr1), (m <? cur)%N)
    /\ reported q1 q3 (match r1 with Err => [ELogFile] | _ => [] end)
    /\ wfs q3 = (if fst (wr_pop b fl1) then wfs q1 else append_ino (wfs q1) (wino wr1) b).
Proof.
  exact (wb_active_rs c m q fl KNever false _ _ cur wr r1 q1 fl1 _ _ cur1 wr1 b).
Qed.

(* ---- the log call around write_buffer ---- *)
Lemma step_write_d x i b r w1 i1 rot :
  s_flw x = Some (flw_of c i) -> s_tl x = [] -> write_buffer (flw_of c i) (s_w x) b = (r, w1, flw_of c i1, rot) -> r <> Panic ->
  step x (OWrite b) = ({| s_flw := Some (flw_of c i1); s_w := match r with Err => report EWrite w1 | _ => w1 end; s_tl := []; s_dead := s_dead x |},
                       ObsRes 0 rot).
Proof.
  intros Es Ht. destruct Hcfg as [_ [Hts [_ Ha]]].
  exact (step_write_sync x (flw_of c i) b r w1 (flw_of c i1) rot Es eq_refl Hts Ha Ht).
Qed.

Lemma step_write_eq_d x x1 i i1 b :
  s_flw x = Some (flw_of c i) -> s_flw x1 = Some (flw_of c i1) -> s_tl x = [] -> s_tl x1 = [] -> s_dead x1 = s_dead x ->
  write_buffer (flw_of c i) (s_w x) b = write_buffer (flw_of c i1) (s_w x1) b ->
  step x (OWrite b) = step x1 (OWrite b).
Proof.
  intros Es Es1 Ht Ht1 Hd. destruct Hcfg as [_ [Hts [_ Ha]]].
  exact (step_write_same x x1 (flw_of c i) (flw_of c i1) b Es Es1 eq_refl eq_refl eq_refl Hts Ha Ht Ht1 Hd).
Qed.

(* ---- the writer and its file r<k>; the closed files cl (number, content), all with numbers below k ---- *)
Record DInv (q : world) (wr : writer) (cl : list (nat * bytes)) (k : nat) (d : bytes) : Prop := {
  di_quiet : quiet q;
  di_wf : dir_ok (wfs q);
  di_cur : lookup (wfs q) (rname c k) = Some (wino wr);
  di_curplain : plain (inode (wfs q) (wino wr));
  di_content : content (wfs q) (wino wr) = d;
  di_pend : wpend wr = [];
  di_cap : wcap wr = None;
  di_closed : forall i x, In (i, x) cl ->
      i < k /\ exists j, lookup (wfs q) (rname c i) = Some j /\ plain (inode (wfs q) j) /\ content (wfs q) j = x;
  di_only : forall n j, lookup (wfs q) n = Some j -> n = rname c k \/ exists i x, In (i, x) cl /\ n = rname c i }.

Lemma dinv_env q q' wr cl k d : DInv q wr cl k d -> wfs q' = wfs q -> quiet q' -> DInv q' wr cl k d.
Proof. intros [Q W Hc Hcp Hco Hp Hca Hcl Hon] F Q'. constructor; try rewrite F; assumption. Qed.

Lemma dinv_append q q' wr cl k d b : DInv q wr cl k d -> quiet q' -> wfs q' = append_ino (wfs q) (wino wr) b ->
  DInv q' wr cl k (d ++ b).
Proof.
  intros [Q [W Nd] Hc Hcp Hco Hp Hca Hcl Hon] Q' F.
  pose proof (wf_bound _ W _ _ Hc) as Hold.
  constructor; try assumption.
  - rewrite F. split; [apply wf_append; exact W | apply NumCleanupStep.nd_append; exact Nd].
  - rewrite F, lookup_append. exact Hc.
  - rewrite F, inode_append, Nat.eqb_refl by assumption. exact Hcp.
  - rewrite F, content_append, Nat.eqb_refl, Hco by assumption. reflexivity.
  - intros i x Hi. destruct (Hcl i x Hi) as [Hlt [j [Lj [Pj Cj]]]]. split; [exact Hlt|]. exists j.
    rewrite F, lookup_append. split; [exact Lj|].
    assert (Hj : j <> wino wr). { intros ->. pose proof (wf_inj _ W _ _ _ Lj Hc) as E. apply rname_inj in E. lia. }
    unfold content. rewrite inode_append by assumption. destruct (Nat.eqb_spec j (wino wr)); [contradiction|]. auto.
  - intros n j. rewrite F, lookup_append. apply Hon.
Qed.

(* a higher number is free *)
Lemma dinv_fresh q wr cl k d k' : DInv q wr cl k d -> k < k' -> lookup (wfs q) (rname c k') = None.
Proof.
  intros I Hk. destruct (lookup (wfs q) (rname c k')) as [j|] eqn:E; [|reflexivity].
  destruct (di_only _ _ _ _ _ I _ _ E) as [E1|[i [x [Hi E1]]]]; apply rname_inj in E1.
  - lia.
  - destruct (di_closed _ _ _ _ _ I i x Hi) as [Hlt _]. lia.
Qed.

(* the creation of r<k'> completes a rotation *)
Lemma dinv_create q wr cl k d k' q3 now : DInv q wr cl k d -> k < k' -> quiet q3 ->
  wfs q3 = fst (create_file (wfs q) (rname c k') 0%N now) ->
  DInv q3 {| wino := snd (create_file (wfs q) (rname c k') 0%N now); wpend := []; wcap := c_cap c |} (cl ++ [(k, d)]) k' [].
Proof.
  intros I Hk Q3 F3. pose proof (dinv_fresh q wr cl k d k' I Hk) as Ht.
  destruct I as [Q [W Nd] Hc Hcp Hco Hp Hca Hcl Hon].
  pose proof (create_file_spec (wfs q) (rname c k') 0%N now) as CS.
  pose proof (wf_create (wfs q) (rname c k') 0%N now W Ht) as W2.
  pose proof (NumCleanupStep.nd_create (wfs q) (rname c k') 0%N now Ht Nd) as Nd2.
  destruct (create_file (wfs q) (rname c k') 0%N now) as [f2 new] eqn:Ecf. cbn [fst snd] in *.
  destruct CS as [Enew [Hino [Lc Lo]]].
  assert (Inew : inode f2 new = fresh_file now).
  { unfold inode. rewrite Hino, Enew, inode_app_new. reflexivity. }
  assert (Iold : forall j, j < length (inodes (wfs q)) -> inode f2 j = inode (wfs q) j).
  { intros j Hj. unfold inode. rewrite Hino, inode_app_old by assumption. reflexivity. }
  constructor; cbn [wino wpend wcap]; try rewrite F3.
  - exact Q3.
  - exact (conj W2 Nd2).
  - exact Lc.
  - rewrite Inew. split; reflexivity.
  - unfold content. rewrite Inew. reflexivity.
  - reflexivity.
  - exact Hcap.
  - intros i x Hi. apply in_app_or in Hi. destruct Hi as [Hi|[Hi|[]]].
    + destruct (Hcl i x Hi) as [Hlt [j [Lj [Pj Cj]]]]. split; [lia|]. exists j.
      rewrite Lo by (intros E; apply rname_inj in E; lia). split; [exact Lj|].
      pose proof (wf_bound _ W _ _ Lj) as Hj. unfold content. rewrite Iold by exact Hj. split; [exact Pj | exact Cj].
    + injection Hi as <- <-. split; [exact Hk|]. exists (wino wr).
      rewrite Lo by (intros E; apply rname_inj in E; lia). split; [exact Hc|].
      pose proof (wf_bound _ W _ _ Hc) as Hj. unfold content. rewrite Iold by exact Hj. split; [exact Hcp | exact Hco].
  - intros n j Hn. destruct (beq_spec n (rname c k')) as [->|Hne]; [left; reflexivity|].
    rewrite Lo in Hn by exact Hne. right. destruct (Hon n j Hn) as [->|[i [x [Hi ->]]]].
    + exists k, d. split; [apply in_or_app; right; left; reflexivity | reflexivity].
    + exists i, x. split; [apply in_or_app; left; exact Hi | reflexivity].
Qed.

Lemma dinv_view q wr cl k d : DInv q wr cl k d -> fs_wf (wfs q) /\ gap_view c (wfs q) (cl ++ [(k, d)]).
Proof.
  intros [Q [W Nd] Hc Hcp Hco Hp Hca Hcl Hon]. split; [exact W|]. split.
  - intros i x Hi. apply in_app_or in Hi. destruct Hi as [Hi|[Hi|[]]].
    + destruct (Hcl i x Hi) as [_ H]. exact H.
    + injection Hi as <- <-. exists (wino wr). auto.
  - intros n j Hn. destruct (Hon n j Hn) as [->|[i [x [Hi ->]]]].
    + exists k, d. split; [apply in_or_app; right; left; reflexivity | reflexivity].
    + exists i, x. split; [apply in_or_app; left; exact Hi | reflexivity].
Qed.

(* ------------------------------------------------------------------ the invariant of the run *)
Definition DFInv (x : sys) (st : dst) (errs : list ecode) (fl : list bool) : Prop :=
  exists q, s_w x = fw q fl /\ quiet q /\ wacts q = 0 /\ werrs q = errs /\ s_tl x = [] /\
  match st with
  | DInit created =>
    s_flw x = Some (flw_of c Initial) /\ dir_ok (wfs q) /\ direct_view c (wfs q) (if created then [[]] else [])
    /\ (created = true -> c_append c = true)
  | DAct cl k s d => exists wr, s_flw x = Some (flw_of c (actd k s (N.of_nat (length d)) wr)) /\ DInv q wr cl k d
  end.

(* the rotation check has been made (result r1, world q1, oracle fl1, writer wr1 on r<k1>, which holds d1): the write *)
Lemma tail_step_d x q fl k s cur wr r1 q1 fl1 cl1 k1 s1 d1 wr1 errs1 b :
  s_w x = fw q fl -> s_tl x = [] -> s_flw x = Some (flw_of c (actd k s cur wr)) ->
  mount_next c (fw q fl) (actd k s cur wr) false = (r1, fw q1 fl1, actd k1 s1 (N.of_nat (length d1)) wr1) ->
  r1 <> Panic -> wacts q1 = 0 -> werrs q1 = errs1 -> DInv q1 wr1 cl1 k1 d1 ->
  let '(d', e, fl2) := s_write d1 b fl1 in
  exists x' rot, step x (OWrite b) = (x', ObsRes 0 rot)
    /\ DFInv x' (DAct cl1 k1 s1 d') (errs1 ++ (match r1 with Err => [ELogFile] | _ => [] end) ++ e) fl2.
Proof.
  intros Ew Ht Es M Hr Ha1 He1 A1. pose proof (di_quiet _ _ _ _ _ A1) as Q1.
  destruct (wb_active_d q fl k s cur wr r1 q1 fl1 _ _ _ wr1 b M Hr Q1 (di_cap _ _ _ _ _ A1)) as [q3 [E [R3 F3]]].
  unfold s_write. destruct (wr_pop b fl1) as [f fl2]. cbn [fst snd] in *.
  rewrite <- Ew in E. pose proof (step_write_d x _ b _ _ _ _ Es Ht E) as S.
  destruct f.
  - (* the write fails: reported by the handle *)
    eexists _, _. split; [apply S; discriminate|].
    destruct (report_ewrite_fw q1 q3 _ errs1 fl2 R3 Ha1 He1) as [Ew' [Q' [Ha' [He' F4]]]].
    exists (report EWrite q3). cbn [s_w s_tl s_flw]. repeat (split; [assumption || reflexivity|]).
    exists wr1. split; [reflexivity|].
    apply (dinv_env q1); [exact A1 | rewrite F4; exact F3 | exact Q'].
  - eexists _, _. split; [apply S; discriminate|].
    exists q3. cbn [s_w s_tl s_flw].
    split; [reflexivity|]. split; [apply R3|]. split; [exact (reported_acts _ _ _ R3 Ha1)|].
    split; [rewrite (reported_errs _ _ _ _ R3 He1), app_nil_r; reflexivity|]. split; [reflexivity|].
    exists wr1. split; [rewrite app_length, Nat2N.inj_add; reflexivity|].
    apply (dinv_append q1); [exact A1 | apply R3 | exact F3].
Qed.

(* one record on an initialised writer *)
Lemma active_step_d x q fl errs cl k s d wr b :
  s_w x = fw q fl -> wacts q = 0 -> werrs q = errs -> s_tl x = [] ->
  s_flw x = Some (flw_of c (actd k s (N.of_nat (length d)) wr)) -> DInv q wr cl k d ->
  let '(st', e, fl') := d_active m cl k s d b fl in
  exists x' rot, step x (OWrite b) = (x', ObsRes 0 rot) /\ DFInv x' st' (errs ++ e) fl'.
Proof.
  intros Ew Ha He Ht Es A. pose proof (di_quiet _ _ _ _ _ A) as Q.
  assert (Hk : k < S (k + s)) by lia.
  pose proof (dinv_fresh q wr cl k d _ A Hk) as L1.
  pose proof (mount_next_d_fw q fl k s (N.of_nat (length d)) wr Q (di_pend _ _ _ _ _ A) L1) as M.
  unfold d_active. replace (k + s + 1) with (S (k + s)) by lia.
  destruct (m <? N.of_nat (length d))%N.
  - destruct (pop fl) as [f1 fl1]. cbn [fst snd] in M. destruct f1.
    + (* the open fails *)
      pose proof (tail_step_d x q fl _ _ _ wr Err q fl1 cl k (S s) d wr errs b Ew Ht Es M (fun H => ltac:(discriminate H)) Ha He A) as T.
      destruct (s_write d b fl1) as [[d' e] fl2]. exact T.
    + (* the rotation is completed *)
      set (q3 := set_fs q (fst (create_file (wfs q) (rname c (S (k + s))) 0%N (wnow q)))) in *.
      set (wr3 := {| wino := snd (create_file (wfs q) (rname c (S (k + s))) 0%N (wnow q)); wpend := []; wcap := c_cap c |}) in *.
      assert (Q3 : quiet q3) by (apply quiet_set_fs; exact Q).
      assert (A3 : DInv q3 wr3 (cl ++ [(k, d)]) (S (k + s)) []) by (apply (dinv_create q wr cl k d _ q3 (wnow q) A Hk Q3); reflexivity).
      change 0%N with (N.of_nat (length (@nil N))) in M.
      pose proof (tail_step_d x q fl _ _ _ wr (Ok tt) q3 fl1 (cl ++ [(k, d)]) (S (k + s)) 0 [] wr3 errs b Ew Ht Es M (fun H => ltac:(discriminate H)) Ha He A3) as T.
      destruct (s_write [] b fl1) as [[d' e] fl3]. exact T.
  - pose proof (tail_step_d x q fl _ _ _ wr (Ok tt) q fl cl k s d wr errs b Ew Ht Es M (fun H => ltac:(discriminate H)) Ha He A) as T.
    destruct (s_write d b fl) as [[d' e] fl1]. exact T.
Qed.

(* ------------------------------------------------------------------ the initialisation *)
(* a directory without files / with the empty r00000 only *)
Lemma view_nil_none f n : direct_view c f [] -> lookup f n = None.
Proof.
  intros [_ Hon]. destruct (lookup f n) as [j|] eqn:E; [|reflexivity]. destruct (Hon n j E) as [i [Hi _]]. cbn in Hi. lia.
Qed.

Lemma create_view_d f now : fs_wf f -> direct_view c f [] ->
  fs_wf (fst (create_file f (rname c 0) 0%N now))
  /\ direct_view c (fst (create_file f (rname c 0) 0%N now)) [[]]
  /\ lookup (fst (create_file f (rname c 0) 0%N now)) (rname c 0) = Some (snd (create_file f (rname c 0) 0%N now)).
Proof.
  intros W V. pose proof (view_nil_none f (rname c 0) V) as Hnc.
  pose proof (create_file_spec f (rname c 0) 0%N now) as CS.
  pose proof (wf_create f (rname c 0) 0%N now W Hnc) as W2.
  destruct (create_file f (rname c 0) 0%N now) as [f2 new] eqn:Ecf. cbn [fst snd] in *.
  destruct CS as [Enew [Hino [Lc Lo]]].
  assert (Inew : inode f2 new = fresh_file now).
  { unfold inode. rewrite Hino, Enew, inode_app_new. reflexivity. }
  split; [exact W2|]. split; [|exact Lc]. split.
  - intros i Hi. cbn [length] in Hi. assert (i = 0) by lia. subst i. exists new. split; [exact Lc|].
    unfold content. rewrite Inew. split; [split; reflexivity | reflexivity].
  - intros n j Hn. destruct (beq_spec n (rname c 0)) as [->|Hne]; [exists 0; split; [cbn; lia | reflexivity]|].
    rewrite Lo in Hn by exact Hne. rewrite (view_nil_none f n V) in Hn. discriminate.
Qed.

Lemma dinv_of_view1 q j : quiet q -> dir_ok (wfs q) -> direct_view c (wfs q) [[]] -> lookup (wfs q) (rname c 0) = Some j ->
  DInv q {| wino := j; wpend := []; wcap := c_cap c |} [] 0 [].
Proof.
  intros Q W [Hcl Hon] L. destruct (Hcl 0) as [j' [Lj [Pj Cj]]]; [cbn; lia|]. assert (j' = j) by congruence. subst j'.
  constructor; cbn [wino wpend wcap]; try assumption.
  - reflexivity.
  - intros i x [].
  - intros n k Hn. destruct (Hon n k Hn) as [i [Hi ->]]. cbn [length] in Hi. left. f_equal. lia.
Qed.

(* the open/create of r00000 by a writer that is being initialised *)
Lemma open_init_d q fl (created : bool) :
  quiet q -> fs_wf (wfs q) -> nodup_names (wfs q) -> direct_view c (wfs q) (if created then [[]] else []) ->
  (created = true -> c_append c = true) ->
  exists f2 ino,
    open_log_file c (fw q fl) (Some (number_infix 0))
    = (if fst (pop fl) then (Err, fw q (snd (pop fl)))
       else (Ok ({| wino := ino; wpend := []; wcap := c_cap c |}, rname c 0), fw (set_fs q f2) (snd (pop fl))))
    /\ dir_ok f2 /\ direct_view c f2 [[]] /\ lookup f2 (rname c 0) = Some ino.
Proof.
  intros Q W Nd R Hc. destruct Hcfg as [Hrot [Hts [Hlink _]]].
  set (opn := if c_append c then open_append (wfs q) (rname c 0) (wnow q) else open_trunc (wfs q) (rname c 0) 0%N (wnow q)).
  assert (Hop : fs_wf (fst opn) /\ direct_view c (fst opn) [[]] /\ lookup (fst opn) (rname c 0) = Some (snd opn)
                /\ match file_of (wfs q) (rname c 0) with Some fl0 => fdir fl0 | None => false end = false).
  { destruct created.
    - pose proof R as [Hcl _]. destruct (Hcl 0) as [j [Lj [Pj Cj]]]; [cbn; lia|].
      assert (E : opn = (wfs q, j)) by (unfold opn, open_append; rewrite (Hc eq_refl), Lj; reflexivity).
      rewrite E. cbn [fst snd]. split; [exact W|]. split; [exact R|]. split; [exact Lj|].
      unfold file_of. rewrite Lj. apply Pj.
    - pose proof (view_nil_none (wfs q) (rname c 0) R) as Lc.
      unfold opn. rewrite (open_fresh _ _ _ _ Lc). destruct (create_view_d (wfs q) (wnow q) W R) as [H1 [H2 H3]].
      split; [exact H1|]. split; [exact H2|]. split; [exact H3|]. unfold file_of. rewrite Lc. reflexivity. }
  destruct Hop as [H1 [H2 [H3 H4]]].
  assert (Nd2 : nodup_names (fst opn))
    by (unfold opn; destruct (c_append c); [apply NumCleanupStep.nd_open_append | apply NumCleanupStep.nd_open_trunc]; exact Nd).
  exists (fst opn), (snd opn). split; [|split; [exact (conj H1 Nd2) | auto]].
  unfold open_log_file. rewrite (name_of_fixed c (fw q fl)) by assumption. fold (nm c (number_infix 0)).
  change (nm c (number_infix 0)) with (rname c 0).
  unfold do_symlink. rewrite Hlink. rewrite p_open_fw by exact Q. rewrite H4. fold opn.
  destruct (fst (pop fl)); reflexivity.
Qed.

(* the oracle entries of one initialisation: None = it succeeds; Some k = it fails (k: after r00000 was created) *)
Definition d_init_pops (app : bool) (fl : list bool) : option bool * list bool :=
  let '(f1, fl1) := pop fl in
  if f1 then (Some false, fl1) else
  let '(f3, fl3) := pop fl1 in
  if f3 then (Some false, fl3) else
  let '(f4, fl4) := if app then pop fl3 else (false, fl3) in
  if f4 then (Some true, fl4) else (None, fl4).

Lemma d_init_alt app created b fl :
  d_init app m created b fl
  = match d_init_pops app fl with
    | (Some k, fl') => (DInit (created || k), [EWrite], fl')
    | (None, fl') => d_active m [] 0 0 [] b fl'
    end.
Proof.
  unfold d_init, d_init_pops. destruct (pop fl) as [f1 fl1]. destruct f1; [rewrite Bool.orb_false_r; reflexivity|].
  destruct (pop fl1) as [f3 fl3]. destruct f3; [rewrite Bool.orb_false_r; reflexivity|].
  destruct (if app then pop fl3 else (false, fl3)) as [f4 fl4]. destruct f4; [rewrite Bool.orb_true_r; reflexivity | reflexivity].
Qed.

Lemma initialize_d_fw q fl (created : bool) :
  quiet q -> dir_ok (wfs q) -> direct_view c (wfs q) (if created then [[]] else []) ->
  (created = true -> c_append c = true) ->
  match d_init_pops (c_append c) fl with
  | (Some k, fl') =>
    exists q', initialize c (fw q fl) = (Err, fw q' fl') /\ same_env q q' /\ dir_ok (wfs q')
      /\ direct_view c (wfs q') (if created || k then [[]] else []) /\ (created || k = true -> c_append c = true)
  | (None, fl') =>
    exists q' wr, initialize c (fw q fl) = (Ok (actd 0 0 0 wr), fw q' fl') /\ same_env q q' /\ DInv q' wr [] 0 []
  end.
Proof.
  intros Q W R Hc. pose proof Hcfg as [Hrot [Hts [Hlink _]]].
  (* a failure before r00000 is created *)
  assert (Fail : forall fl', exists q', (Err : res inner, fw q fl') = (Err, fw q' fl') /\ same_env q q' /\ dir_ok (wfs q')
      /\ direct_view c (wfs q') (if created || false then [[]] else []) /\ (created || false = true -> c_append c = true)).
  { intros fl'. exists q. rewrite Bool.orb_false_r. split; [reflexivity|]. split; [apply same_env_refl; exact Q|]. auto. }
  unfold initialize. rewrite Hrot. unfold init_naming, with_listing. rewrite tick_fw.
  unfold d_init_pops. destruct (pop fl) as [f1 fl1]. cbn [fst snd]. destruct f1; [cbn [bind]; apply Fail|].
  rewrite fixed_of_fixed0 by assumption. change (woff (fw q fl1)) with (woff q). change (wfs (fw q fl1)) with (wfs q).
  rewrite (highest_index_direct c (woff q) (wfs q) _ R) by (destruct created; cbn; lia).
  (* the index: 0 in both cases *)
  cbn [bind].
  match goal with |- context [number_infix ?t] => assert (E0 : t = 0%N) end.
  { destruct created; [|reflexivity]. cbn [length N.of_nat]. rewrite (Hc eq_refl).
    rewrite (name_of_fixed c (fw q fl1)) by assumption. fold (nm c (number_infix 0)). change (nm c (number_infix 0)) with (rname c 0).
    change (wfs (fw q fl1)) with (wfs q). pose proof R as [Hcl _]. destruct (Hcl 0) as [j [Lj _]]; [cbn; lia|]. rewrite Lj. reflexivity. }
  rewrite E0. clear E0.
  destruct (open_init_d q fl1 created Q (proj1 W) (proj2 W) R Hc) as [f2 [ino [Eop [W2 [R2 L2]]]]]. rewrite Eop.
  destruct (pop fl1) as [f3 fl3]. cbn [fst snd]. destruct f3; [cbn [bind]; apply Fail|]. cbn [bind].
  set (q2 := set_fs q f2). assert (Q2 : quiet q2) by (apply quiet_set_fs; exact Q).
  pose proof R2 as [Hcl2 _]. destruct (Hcl2 0) as [j [Lj [Pj Cj]]]; [cbn; lia|]. assert (j = ino) by congruence. subst j.
  cbn [nth] in Cj.
  rewrite (roll_new_fw q2 fl3 m (c_append c) (rname c 0) (inode f2 ino) (file_of_lookup f2 _ _ L2) Cj).
  destruct (if c_append c then pop fl3 else (false, fl3)) as [f4 fl4] eqn:E4. destruct f4; cbn [bind].
  - (* the metadata call fails: r00000 has been created *)
    exists q2. rewrite Bool.orb_true_r. split; [reflexivity|]. split; [apply same_env_set_fs; exact Q|].
    split; [exact W2|]. split; [exact R2|]. intros _. destruct (c_append c); [reflexivity | discriminate E4].
  - exists q2, {| wino := ino; wpend := []; wcap := c_cap c |}. split; [reflexivity|]. split; [apply same_env_set_fs; exact Q|].
    exact (dinv_of_view1 q2 ino Q2 W2 R2 L2).
Qed.

(* one record on a writer that is not initialised *)
Lemma init_step_d x created errs fl b : DFInv x (DInit created) errs fl ->
  let '(st', e, fl') := d_init (c_append c) m created b fl in
  exists x' rot, step x (OWrite b) = (x', ObsRes 0 rot) /\ DFInv x' st' (errs ++ e) fl'.
Proof.
  intros [q [Ew [Q [Ha [He [Ht [Es [W [R Hc]]]]]]]]]. rewrite d_init_alt.
  pose proof (initialize_d_fw q fl created Q W R Hc) as IF.
  destruct (d_init_pops (c_append c) fl) as [[k|] fl'].
  - (* the initialisation fails: the record is lost, the handle reports it, the writer stays uninitialised *)
    destruct IF as [q' [Ei [S [W' [R' Hc']]]]].
    assert (E : write_buffer (flw_of c Initial) (s_w x) b = (Err, fw q' fl', flw_of c Initial, false)).
    { rewrite Ew. unfold write_buffer. cbn [flw_of f_cfg f_inner]. rewrite Ei. reflexivity. }
    eexists _, _. split; [apply (step_write_d x Initial b Err _ Initial false Es Ht E); discriminate|].
    destruct (report_ewrite_fw q q' [] errs fl' (same_env_reported _ _ S) Ha He) as [Ew' [Q' [Ha' [He' F4]]]].
    exists (report EWrite q'). cbn [s_w s_tl s_flw]. rewrite F4. auto 10.
  - destruct IF as [q' [wr [Ei [S A]]]].
    set (x1 := {| s_flw := Some (flw_of c (actd 0 0 0 wr)); s_w := fw q' fl'; s_tl := []; s_dead := s_dead x |}).
    assert (E : step x (OWrite b) = step x1 (OWrite b)).
    { apply (step_write_eq_d x x1 Initial (actd 0 0 0 wr) b Es eq_refl Ht eq_refl eq_refl). rewrite Ew. cbn [x1 s_w].
      exact (write_buffer_init c (fw q fl) b _ wr (rname c 0) (fw q' fl') Ei). }
    rewrite E.
    apply (active_step_d x1 q' fl' errs [] 0 0 [] wr b eq_refl).
    + exact (same_env_acts _ _ S Ha).
    + destruct S as [_ [_ [_ [H _]]]]. congruence.
    + reflexivity.
    + reflexivity.
    + exact A.
Qed.

Theorem dfstep x st errs fl b : DFInv x st errs fl ->
  let '(st', e, fl') := dstep (c_append c) m st fl b in
  exists x' rot, step x (OWrite b) = (x', ObsRes 0 rot) /\ DFInv x' st' (errs ++ e) fl'.
Proof.
  intros I. destruct st as [created|cl k s d]; cbn [dstep].
  - apply init_step_d. exact I.
  - destruct I as [q [Ew [Q [Ha [He [Ht [wr [Es A]]]]]]]]. exact (active_step_d x q fl errs cl k s d wr b Ew Ha He Ht Es A).
Qed.

Definition dfrun := run_writes dst (dstep (c_append c) m) (simd_st (c_append c) m) (fun _ _ => eq_refl) (fun _ _ _ _ => eq_refl)
                     (fun _ => DFInv) (fun _ => dfstep).

(* what the invariant says about the world *)
Lemma dfinv_final x st errs fl : DFInv x st errs fl ->
  fs_wf (wfs (s_w x)) /\ gap_view c (wfs (s_w x)) (d_files st)
  /\ werrs (s_w x) = errs /\ wfaults (s_w x) = fl /\ wkill (s_w x) = None.
Proof.
  intros [q [Ew [Q [Ha [He [Ht I]]]]]]. rewrite Ew. cbn [fw set_faults wfs werrs wfaults wkill].
  assert (V : fs_wf (wfs q) /\ gap_view c (wfs q) (d_files st)).
  { destruct st as [created|cl k s d]; cbn [d_files].
    - destruct I as [_ [[W _] [[Hcl Hon] _]]]. split; [exact W|]. split.
      + intros i y Hi. destruct created; [|destruct Hi]. destruct Hi as [Hi|[]]. injection Hi as <- <-.
        destruct (Hcl 0) as [j H]; [cbn; lia|]. exists j. exact H.
      + intros n j Hn. destruct (Hon n j Hn) as [i [Hi ->]]. destruct created; cbn [length] in Hi; [|lia].
        exists 0, []. split; [left; reflexivity | f_equal; lia].
    - destruct I as [wr [_ I]]. exact (dinv_view q wr cl k d I). }
  destruct V as [W V]. split; [exact W|]. split; [exact V|]. split; [exact He|]. split; [reflexivity | apply Q].
Qed.

Lemma dfinv_start t0 off fl : DFInv (fst (step (fsys t0 off fl) (OStart c))) (DInit false) [] fl.
Proof.
  exists (world0 t0 off). split; [reflexivity|]. split; [split; reflexivity|]. split; [reflexivity|]. split; [reflexivity|].
  split; [reflexivity|]. split; [reflexivity|]. split; [split; [exact wf_empty | constructor]|]. split; [|discriminate].
  split; [intros i Hi; cbn in Hi; lia | intros n j L; discriminate L].
Qed.

Lemma dfinv_nodup x st errs fl : DFInv x st errs fl -> nodup_names (wfs (s_w x)).
Proof.
  intros [q [Ew [_ [_ [_ [_ I]]]]]]. rewrite Ew. change (wfs (fw q fl)) with (wfs q).
  destruct st as [created|cl k s d]; [destruct I as [_ [[_ Nd] _]]; exact Nd | destruct I as [wr [_ A]]; exact (proj2 (di_wf _ _ _ _ _ A))].
Qed.

(* the whole history from the empty directory *)
Lemma dfrun_start t0 off fl recs :
  let '(st, e, fl') := simd_st (c_append c) m (DInit false) fl recs in
  exists x' obs, run (fsys t0 off fl) (OStart c :: List.map OWrite recs) = (x', ObsRes 0 false :: obs)
    /\ DFInv x' st e fl' /\ Forall obs_normal obs.
Proof.
  pose proof (dfrun recs _ _ _ _ (dfinv_start t0 off fl)) as R.
  destruct (simd_st (c_append c) m (DInit false) fl recs) as [[st e] fl']. destruct R as [x' [obs [R [I O]]]].
  exists x', obs. rewrite run_start, R. auto.
Qed.

(* ---- when no number has been skipped (no open ever failed at a rotation) and the writer is where the naming state is,
        the invariant is the one of the fault-free development (NumDInv / RelD) ---- *)
Lemma seq_files (cl : list (nat * bytes)) : forall a n, List.map fst cl = seq a n ->
  length cl = n /\ forall i, i < n -> In (a + i, nth i (List.map snd cl) []) cl.
Proof.
  induction cl as [|[j y] r IH]; intros a n E; destruct n as [|n]; cbn [List.map seq fst snd] in E; try discriminate.
  - split; [reflexivity | intros i Hi; lia].
  - injection E as -> E. destruct (IH (S a) n E) as [L H]. split; [cbn [length]; lia|].
    intros i Hi. destruct i as [|i]; cbn [List.map snd nth].
    + left. f_equal. lia.
    + right. replace (a + S i) with (S a + i) by lia. apply H. lia.
Qed.

Lemma dinv_numdinv q wr cl k d : DInv q wr cl k d -> List.map fst cl = seq 0 k ->
  NumDInv c q wr (List.map snd cl) /\ cur_view q wr = d /\ length (List.map snd cl) = k.
Proof.
  intros [Q [W Nd] Hc Hcp Hco Hp Hca Hcl Hon] E. destruct (seq_files cl 0 k E) as [L H].
  assert (Lm : length (List.map snd cl) = k) by (rewrite map_length; exact L).
  split; [|split; [unfold cur_view; rewrite Hp, app_nil_r; exact Hco | exact Lm]].
  constructor; try assumption.
  - rewrite Lm. exact Hc.
  - rewrite Lm. intros i Hi. destruct (Hcl _ _ (H i Hi)) as [_ X]. exact X.
  - rewrite Lm. intros n j Hn. destruct (Hon n j Hn) as [->|[i [x [Hi ->]]]].
    + exists k. split; [lia | reflexivity].
    + destruct (Hcl i x Hi) as [Hlt _]. exists i. split; [lia | reflexivity].
  - unfold wr_ok. rewrite Hca. exact Hp.
  - rewrite Hca, Hcap. reflexivity.
Qed.

Theorem dfinv_reld x cl k d errs : DFInv x (DAct cl k 0 d) errs [] -> List.map fst cl = seq 0 k ->
  RelD c (CSize m) x (Some (List.map snd cl, d)).
Proof.
  intros [q [Ew [Q [Ha [He [Ht [wr [Es I]]]]]]]] E.
  destruct (dinv_numdinv q wr cl k d I E) as [NI [V Lm]].
  split; [exact Ht|]. split; [rewrite Ew; exact Ha|].
  exists wr, (RSize m (N.of_nat (length d))). split.
  { rewrite Es. unfold flw_of, actd, st_of_d. rewrite Lm, Nat.add_0_r. reflexivity. }
  split. { rewrite Ew. apply (numdinv_env c q); [exact NI | reflexivity | split; [reflexivity | apply Q]]. }
  split; [rewrite Ew; exact V|]. split; [reflexivity|]. intros m' E'. injection E' as <-. eauto.
Qed.

End NumD.

(* (1) For every fault oracle fl and every list of records: after  OStart c :: map OWrite recs  from the empty directory
   with the oracle fl, the directory is exactly what simd says - for each listed (number, content) the file r<number>
   with that content, nothing else; the numbers are strictly increasing (all names different, in the order of creation) -,
   the error channel holds exactly the errors simd lists (with their codes, in order), the oracle is consumed as simd
   says, and every log call (and the start) returns normally: no panic, no error result, the state is never poisoned. *)
Theorem faults_numbersdirect c m t0 off fl recs :
  numdcfg c (CSize m) -> c_cap c = None ->
  let r := run (fsys t0 off fl) (OStart c :: List.map OWrite recs) in
  let '(files, errs, rest) := simd (c_append c) m fl recs in
  fs_wf (wfs (s_w (fst r)))
  /\ gap_view c (wfs (s_w (fst r))) files
  /\ StronglySorted lt (List.map fst files)
  /\ werrs (s_w (fst r)) = errs
  /\ wfaults (s_w (fst r)) = rest
  /\ (forall o, In o (snd r) -> exists rot, o = ObsRes 0 rot).
Proof.
  intros Hcfg Hcap. cbv zeta. unfold simd.
  pose proof (dfrun_start c m Hcfg Hcap t0 off fl recs) as R.
  pose proof (simd_files (c_append c) m recs (DInit false) fl) as SF.
  destruct (simd_st (c_append c) m (DInit false) fl recs) as [[st e] fl']. cbn [fst] in SF.
  destruct R as [x' [obs [Rn [I O]]]]. rewrite Rn. cbn [fst snd].
  destruct (dfinv_final c m x' st e fl' I) as [W [V [He [Hf _]]]].
  split; [exact W|]. split; [exact V|]. split; [apply SF, d_sorted_init|]. split; [exact He|]. split; [exact Hf|].
  intros o [<-|Ho]; [eexists; reflexivity|]. rewrite Forall_forall in O. exact (O o Ho).
Qed.
Print Assumptions faults_numbersdirect.

(* the state-level form: the same with the final state of the specification *)
Lemma faults_numbersdirect_st c m t0 off fl recs :
  numdcfg c (CSize m) -> c_cap c = None ->
  let r := run (fsys t0 off fl) (OStart c :: List.map OWrite recs) in
  let '(st, errs, rest) := simd_st (c_append c) m (DInit false) fl recs in
  fs_wf (wfs (s_w (fst r))) /\ gap_view c (wfs (s_w (fst r))) (d_files st)
  /\ werrs (s_w (fst r)) = errs /\ wfaults (s_w (fst r)) = rest
  /\ (forall o, In o (snd r) -> exists rot, o = ObsRes 0 rot).
Proof.
  intros Hcfg Hcap. pose proof (faults_numbersdirect c m t0 off fl recs Hcfg Hcap) as F. cbv zeta in F |- *. unfold simd in F.
  destruct (simd_st (c_append c) m (DInit false) fl recs) as [[st e] fl']. tauto.
Qed.

(* the stream a reader finds in a directory with these files: the files in the order of their numbers *)
Definition files_stream (files : list (nat * bytes)) : bytes := concat (List.map snd files).

(* (2) in terms of the run, record by record: with t = traced .. the list of log calls (record, its reports, the oracle
   entries its call consumed - they partition the consumed part of the oracle, and the reports are those on the error
   channel), the directory reads as the concatenation of the records that were kept; a record whose log call consumed
   only `false` entries is kept and nothing is reported for it; a record that is missing had a failing call in its own
   log call and was reported with EWrite *)
Theorem numd_lost_only_around_failures_run c m t0 off fl recs :
  numdcfg c (CSize m) -> c_cap c = None ->
  let x := fst (run (fsys t0 off fl) (OStart c :: List.map OWrite recs)) in
  let t := traced (c_append c) m (DInit false) fl recs in
  exists files,
    gap_view c (wfs (s_w x)) files /\ StronglySorted lt (List.map fst files)
    /\ files_stream files = concat (List.map t_kept t)
    /\ List.map t_rec t = recs
    /\ werrs (s_w x) = concat (List.map t_errs t)
    /\ fl = concat (List.map t_used t) ++ wfaults (s_w x)
    /\ (forall e, In e t -> length (t_errs e) = ntrue (t_used e))
    /\ (forall e, In e t -> (forall f, In f (t_used e) -> f = false) -> t_errs e = [] /\ t_kept e = t_rec e)
    /\ (forall e, In e t -> t_kept e <> t_rec e -> In true (t_used e) /\ In EWrite (t_errs e)).
Proof.
  intros Hcfg Hcap. cbv zeta.
  pose proof (faults_numbersdirect c m t0 off fl recs Hcfg Hcap) as Fr. cbv zeta in Fr. unfold simd in Fr.
  pose proof (numd_lost_only_around_failures (c_append c) m fl recs) as L.
  destruct (simd_st (c_append c) m (DInit false) fl recs) as [[st e] fl']. cbv zeta in L.
  destruct Fr as [_ [V [Hso [He [Hf _]]]]]. destruct L as [H1 [H2 [H3 [H4 [H5 [H6 H7]]]]]].
  exists (d_files st). rewrite He, Hf.
  split; [exact V|]. split; [exact Hso|]. split; [exact H4|]. split; [exact H1|]. split; [exact H3|]. split; [exact H2|]. auto.
Qed.
Print Assumptions numd_lost_only_around_failures_run.

(* (2), (3) in terms of the run only: the directory reads as the concatenation of a subsequence `kept` of the records
   (nothing duplicated, nothing reordered, nothing else in the files); each missing record is announced by one EWrite on
   the error channel: #missing = #EWrite <= #reports; the only other code that occurs is ELogFile (a failed open at a
   rotation; the record of that call is not lost) *)
Theorem numd_loss_is_reported_run c m t0 off fl recs :
  numdcfg c (CSize m) -> c_cap c = None ->
  let x := fst (run (fsys t0 off fl) (OStart c :: List.map OWrite recs)) in
  exists files kept,
    gap_view c (wfs (s_w x)) files /\ StronglySorted lt (List.map fst files)
    /\ files_stream files = concat kept /\ Subseq kept recs
    /\ length recs = length kept + nlost (werrs (s_w x))
    /\ nlost (werrs (s_w x)) <= length (werrs (s_w x))
    /\ (forall e, In e (werrs (s_w x)) -> e = EWrite \/ e = ELogFile).
Proof.
  intros Hcfg Hcap. cbv zeta.
  pose proof (faults_numbersdirect c m t0 off fl recs Hcfg Hcap) as F. cbv zeta in F. unfold simd in F.
  pose proof (numd_loss_is_reported (c_append c) m recs (DInit false) fl) as L.
  destruct (simd_st (c_append c) m (DInit false) fl recs) as [[st e] fl'].
  destruct F as [_ [V [Hso [He _]]]]. destruct L as [kept [Hs [Hst [Hl [Hle Hco]]]]].
  exists (d_files st), kept. rewrite He. split; [exact V|]. split; [exact Hso|]. split; [exact Hst|]. auto.
Qed.
Print Assumptions numd_loss_is_reported_run.

(* (4) recovery at the level of the run.  x1: the state after recs1; r2: the run of recs1 ++ recs2.  When the oracle
   that is left after recs1 holds no failure any more: nothing more is reported, every record of recs2 is in the stream,
   the contents
   (closed files, current file) develop by the fault-free size rule s_run - a rotation that is pending because opens
   failed is carried out with the first record -, the new files get the consecutive numbers d_next st1, d_next st1 + 1,
   ..., all larger than every number in use, the files closed before keep number and content: no file is overwritten;
   every call returns normally *)
Theorem numd_recovery_run c m t0 off fl recs1 recs2 :
  numdcfg c (CSize m) -> c_cap c = None ->
  let x1 := fst (run (fsys t0 off fl) (OStart c :: List.map OWrite recs1)) in
  let r2 := run (fsys t0 off fl) (OStart c :: List.map OWrite (recs1 ++ recs2)) in
  let '(st1, _, _) := simd_st (c_append c) m (DInit false) fl recs1 in
  let '(st2, _, _) := simd_st (c_append c) m (DInit false) fl (recs1 ++ recs2) in
  all_false (wfaults (s_w x1)) ->
  gap_view c (wfs (s_w x1)) (d_files st1) /\ gap_view c (wfs (s_w (fst r2))) (d_files st2)
  /\ werrs (s_w (fst r2)) = werrs (s_w x1)
  /\ files_stream (d_files st2) = files_stream (d_files st1) ++ concat recs2
  /\ daview st2 = s_run m (daview st1) (List.map OWrite recs2)
  /\ (exists n, d_idx st2 = d_idx st1 ++ seq (d_next st1) n)
  /\ Forall (fun i => i < d_next st1) (d_idx st1)
  /\ StronglySorted lt (d_idx st2)
  /\ (exists ext, d_closed st2 = d_closed st1 ++ ext)
  /\ (recs2 <> [] -> exists cl k d, st2 = DAct cl k 0 d)
  /\ (forall o, In o (snd r2) -> exists rot, o = ObsRes 0 rot).
Proof.
  intros Hcfg Hcap. cbv zeta.
  pose proof (faults_numbersdirect_st c m t0 off fl recs1 Hcfg Hcap) as F1.
  pose proof (faults_numbersdirect_st c m t0 off fl (recs1 ++ recs2) Hcfg Hcap) as F2.
  pose proof (numd_recovery (c_append c) m fl recs1 recs2) as R.
  pose proof (simd_files (c_append c) m recs1 (DInit false) fl) as SF.
  cbv zeta in F1, F2.
  destruct (simd_st (c_append c) m (DInit false) fl recs1) as [[st1 e1] fl1]. cbn [fst] in SF.
  destruct (simd_st (c_append c) m (DInit false) fl (recs1 ++ recs2)) as [[st2 e2] fl2].
  destruct F1 as [_ [V1 [He1 [Hf1 _]]]]. destruct F2 as [_ [V2 [He2 [_ O2]]]].
  intros Hf. rewrite Hf1 in Hf. destruct (R Hf) as [-> [Hs [Hv [Hi [Hso [Hx Hc]]]]]].
  split; [exact V1|]. split; [exact V2|]. split; [congruence|]. split; [exact Hs|]. split; [exact Hv|].
  split; [exact Hi|]. split; [apply SF, d_sorted_init|]. split; [exact Hso|]. split; [exact Hx|]. split; [exact Hc | exact O2].
Qed.
Print Assumptions numd_recovery_run.

(* (4) for arbitrary further operations.  When the oracle has been used up, the writer is on the file of the naming
   state (which is the case after the first record that follows the last failure: numd_recovery) and no number has been
   skipped (no open failed at a rotation: only initialisation steps and writes failed), the state is related to the
   view (closed contents, current content) by RelD, the invariant of the fault-free development: whatever basic
   operations follow (writes, flushes, rotate(), clock ticks), they behave exactly as in a run without failures from
   that directory - the view follows the size rule s_run, and every write reports whether it rotated.
   (With skipped numbers the same holds for further records by numd_recovery_run; RelD itself describes directories
   without gaps only.) *)
Theorem numd_recovery_run_ops c m t0 off fl recs ops :
  numdcfg c (CSize m) -> c_cap c = None -> Forall basic_op ops ->
  let x := fst (run (fsys t0 off fl) (OStart c :: List.map OWrite recs)) in
  let '(st, _, rest) := simd_st (c_append c) m (DInit false) fl recs in
  rest = [] -> forall cl k d, st = DAct cl k 0 d -> List.map fst cl = seq 0 k ->
    RelD c (CSize m) x (Some (List.map snd cl, d))
    /\ RelD c (CSize m) (fst (run x ops)) (s_run m (Some (List.map snd cl, d)) ops)
    /\ (forall i o b, nth_error ops i = Some o -> (o = OWrite b \/ o = OPlain b) ->
          nth_error (snd (run x ops)) i
          = Some (ObsRes 0 (m <? N.of_nat (length (cur_of (s_run m (Some (List.map snd cl, d)) (firstn i ops)))))%N)).
Proof.
  intros Hcfg Hcap Hb. cbv zeta.
  pose proof (dfrun_start c m Hcfg Hcap t0 off fl recs) as R.
  destruct (simd_st (c_append c) m (DInit false) fl recs) as [[st e] fl'].
  destruct R as [x' [obs [Rn [I O]]]]. intros -> cl k d -> Hseq. rewrite Rn. cbn [fst].
  pose proof (dfinv_reld c m Hcap x' cl k d _ I Hseq) as Rl.
  split; [exact Rl|].
  pose proof (run_rel_d c (CSize m) Hcfg ops x' _ Rl Hb) as R2.
  destruct (run_size_d c m Hcfg ops x' _ Rl Hb) as [E2 O2]. rewrite E2 in R2.
  split; [exact R2|]. intros i o b Hi Hw. exact (O2 i o Hi b Hw).
Qed.
Print Assumptions numd_recovery_run_ops.

(* ------------------------------------------------------------------ the statement, computed on examples *)
Import String.StringSyntax.
Open Scope string_scope.
Definition dx_cfg (app : bool) (m : N) : config :=
  {| c_spec := {| fbase := bs "app"; fdisc := None; fts := false; fsfx := Some (bs "log") |};
     c_append := app; c_cap := None; c_rot := Some (CSize m, NNumbersDirect, KNever); c_utc := false;
     c_symlink := false; c_bg := false; c_async := false; c_start := None |}.
Lemma dx_numdcfg app m : numdcfg (dx_cfg app m) (CSize m) /\ c_cap (dx_cfg app m) = None.
Proof. repeat split. Qed.

Definition dx_run (app : bool) (m : N) (fl : list bool) (recs : list bytes)
  : list (bytes * N * bytes) * list ecode * list bool * bool :=
  let r := run (fsys 0 0 fl) (OStart (dx_cfg app m) :: List.map OWrite recs) in
  (snap_of (fst r), werrs (s_w (fst r)), wfaults (s_w (fst r)), forallb obs_normalb (snd r)).
Definition dx_sim (app : bool) (m : N) (fl : list bool) (recs : list bytes)
  : list (bytes * N * bytes) * list ecode * list bool * bool :=
  let '(files, e, rest) := simd app m fl recs in
  (List.map (fun p => (rname (dx_cfg app m) (fst p), 0%N, snd p)) files, e, rest, true).
Definition dagree (app : bool) (m : N) (recs : list bytes) (fl : list bool) : bool :=
  let '(d1, e1, f1, ok1) := dx_run app m fl recs in
  let '(d2, e2, f2, ok2) := dx_sim app m fl recs in
  leqb ent_eqb d1 d2 && leqb ec_eqb e1 e2 && leqb Bool.eqb f1 f2 && Bool.eqb ok1 ok2.
Definition d0 := bs "app_r00000.log".
Definition d1 := bs "app_r00001.log".
Definition d2 := bs "app_r00002.log".
Definition d3 := bs "app_r00003.log".
Definition d4 := bs "app_r00004.log".

(* size limit 3, no append: the first log call makes three fallible calls (read_dir, open, write); a rotation makes one
   (open) *)
Example dx_none : dx_run false 3 [] recs5 = ([(d0, 0%N, bs "abcd"); (d1, 0%N, bs "efgh"); (d2, 0%N, bs "ijkl"); (d3, 0%N, bs "mn")], [], [], true)
               /\ dx_sim false 3 [] recs5 = dx_run false 3 [] recs5.
Proof. split; vm_compute; reflexivity. Qed.
(* (i) the open of r00001 at the rotation before "ef" fails: reported (ELogFile), "ef" goes into the over-full r00000; the
   next record rotates - to r00002: the number 1 is skipped *)
Example dx_open_fails : dx_run false 3 [F;F;F; T] recs5 = ([(d0, 0%N, bs "abcdef"); (d2, 0%N, bs "ghijkl"); (d3, 0%N, bs "mn")], [ELogFile], [], true)
               /\ dx_sim false 3 [F;F;F; T] recs5 = dx_run false 3 [F;F;F; T] recs5.
Proof. split; vm_compute; reflexivity. Qed.
(* ... as long as the open fails r00000 grows beyond the limit, each time reported, nothing lost; each failure skips a
   number: after three failures the next file is r00004 *)
Example dx_open_keeps_failing :
  dx_run false 3 [F;F;F; T;F; T;F; T;F] recs5 = ([(d0, 0%N, bs "abcdefghijkl"); (d4, 0%N, bs "mn")], [ELogFile; ELogFile; ELogFile], [], true)
  /\ dx_sim false 3 [F;F;F; T;F; T;F; T;F] recs5 = dx_run false 3 [F;F;F; T;F; T;F; T;F] recs5.
Proof. split; vm_compute; reflexivity. Qed.
(* (iii) the listing of the initialisation fails: "abcd" is lost and reported (EWrite); the next record initialises again *)
Example dx_listing_fails : dx_run false 3 [T] recs3 = ([(d0, 0%N, bs "efgh")], [EWrite], [], true)
               /\ dx_sim false 3 [T] recs3 = dx_run false 3 [T] recs3.
Proof. split; vm_compute; reflexivity. Qed.
(* the open of the initialisation fails (first record), then the listing of the second initialisation (second record) *)
Example dx_init_fails_twice : dx_run false 3 [F;T; T] recs3 = ([(d0, 0%N, bs "gh")], [EWrite; EWrite], [], true)
               /\ dx_sim false 3 [F;T; T] recs3 = dx_run false 3 [F;T; T] recs3.
Proof. split; vm_compute; reflexivity. Qed.
(* with append the calls are read_dir, open, metadata: when metadata fails the created (empty) r00000 stays and is
   continued by the next initialisation *)
Example dx_metadata_fails : dx_run true 3 [F;F;T] [bs "abcd"] = ([(d0, 0%N, [])], [EWrite], [], true)
               /\ dx_sim true 3 [F;F;T] [bs "abcd"] = dx_run true 3 [F;F;T] [bs "abcd"]
               /\ dx_run true 3 [F;F;T] recs3 = ([(d0, 0%N, bs "efgh")], [EWrite], [], true)
               /\ dx_sim true 3 [F;F;T] recs3 = dx_run true 3 [F;F;T] recs3.
Proof. repeat split; vm_compute; reflexivity. Qed.
(* (iv) the write fails: the record is lost and reported (EWrite) *)
Example dx_write_fails : dx_run false 3 [F;F;T] recs3 = ([(d0, 0%N, bs "efgh")], [EWrite], [], true)
               /\ dx_sim false 3 [F;F;T] recs3 = dx_run false 3 [F;F;T] recs3.
Proof. split; vm_compute; reflexivity. Qed.
(* one log call, two reports: the rotation fails (ELogFile) and then the write fails (EWrite): one record lost *)
Example dx_two_reports : dx_run false 3 [F;F;F; T;T] recs3 = ([(d0, 0%N, bs "abcd"); (d2, 0%N, bs "gh")], [ELogFile; EWrite], [], true)
               /\ dx_sim false 3 [F;F;F; T;T] recs3 = dx_run false 3 [F;F;F; T;T] recs3.
Proof. split; vm_compute; reflexivity. Qed.

(* the specification on one oracle: the directory that (1) gives (dx_instance); the hypothesis of (4) after three records
   and the numbers of the files created afterwards (dx_recovery_instance) *)
Example dx_instance :
  let '(files, errs, rest) := simd false 3 [F;F;F; T;F; T;T] recs5 in
  files = [(0, bs "abcdef"); (3, bs "ijkl"); (4, bs "mn")] /\ errs = [ELogFile; ELogFile; EWrite] /\ rest = [].
Proof. vm_compute. repeat split. Qed.
Example dx_recovery_instance :
  let '(st1, _, fl1) := simd_st false 3 (DInit false) [F;F;F; T;F; T;T] (firstn 3 recs5) in
  let '(st2, _, _) := simd_st false 3 (DInit false) [F;F;F; T;F; T;T] recs5 in
  fl1 = [] /\ d_files st1 = [(0, bs "abcdef")] /\ d_next st1 = 3 /\ d_idx st2 = d_idx st1 ++ seq 3 2.
Proof. vm_compute. repeat split. Qed.

(* an instance of the hypotheses of numd_recovery_run_ops: initialisation and write failures only, no number skipped *)
Example dx_ops_instance :
  let '(st, e, rest) := simd_st false 3 (DInit false) [T; F;F;T] recs5 in
  rest = [] /\ e = [EWrite; EWrite] /\ st = DAct [(0, bs "ghijkl")] 1 0 (bs "mn") /\ List.map fst [(0, bs "ghijkl")] = seq 0 1.
Proof. vm_compute. repeat split. Qed.

(* a directory with that view, no name entered twice, is read as the list of these files when their names are in
   ascending byte order *)
Lemma gap_view_snap c f files : gap_view c f files -> nodup_names f ->
  SnapFacts.ascending (List.map SnapFacts.ent_name (List.map (fun p => (rname c (fst p), 0%N, snd p)) files)) = true ->
  TsReader.snap_list f = List.map (fun p => (rname c (fst p), 0%N, snd p)) files.
Proof.
  intros [Hf Hon] Nd Asc. apply SnapFacts.snap_list_exact; [exact Nd | exact Asc | |].
  - intros a Ia. apply in_map_iff in Ia. destruct Ia as [[i d] [<- Ip]]. cbn [fst snd SnapFacts.ent_name].
    destruct (Hf i d Ip) as [j [Lj [Pj Cj]]]. split; [apply dir_names_lookup; eauto|].
    rewrite (SnapFacts.snap_entry_plain f _ j Lj Pj), Cj. reflexivity.
  - intros n j Lj. destruct (Hon n j Lj) as [i [d [Hi ->]]]. rewrite map_map. apply in_map_iff. exists (i, d).
    split; [reflexivity | exact Hi].
Qed.

Lemma faults_numbersdirect_nodup c m t0 off fl recs : numdcfg c (CSize m) -> c_cap c = None ->
  nodup_names (wfs (s_w (fst (run (fsys t0 off fl) (OStart c :: List.map OWrite recs))))).
Proof.
  intros Hcfg Hcap. pose proof (dfrun_start c m Hcfg Hcap t0 off fl recs) as R.
  destruct (simd_st (c_append c) m (DInit false) fl recs) as [[st e] fl']. destruct R as [x' [obs [Rn [I _]]]].
  rewrite Rn. eapply dfinv_nodup. exact I.
Qed.

(* the names of the specification's directory are in ascending order: this concerns the specification alone *)
Definition dx_sorted (app : bool) (m : N) (recs : list bytes) (fl : list bool) : bool :=
  SnapFacts.ascending (List.map SnapFacts.ent_name (fst (fst (fst (dx_sim app m fl recs))))).

(* run and specification agree wherever the names are in ascending order: this is faults_numbersdirect *)
Theorem dagree_holds app m recs fl : dx_sorted app m recs fl = true -> dagree app m recs fl = true.
Proof.
  intros Hs. destruct (dx_numdcfg app m) as [Hcfg Hcap].
  pose proof (faults_numbersdirect (dx_cfg app m) m 0 0 fl recs Hcfg Hcap) as Fr.
  pose proof (faults_numbersdirect_nodup (dx_cfg app m) m 0 0 fl recs Hcfg Hcap) as Nd.
  cbv zeta in Fr. change (c_append (dx_cfg app m)) with app in Fr.
  unfold dx_sorted, dx_sim in Hs. unfold dagree, dx_run, dx_sim.
  destruct (simd app m fl recs) as [[files e'] rest]. cbn [fst] in Hs.
  destruct Fr as [_ [V [_ [He [Hf O]]]]].
  change (snap_of (fst (run (fsys 0 0 fl) (OStart (dx_cfg app m) :: List.map OWrite recs))))
    with (TsReader.snap_list (wfs (s_w (fst (run (fsys 0 0 fl) (OStart (dx_cfg app m) :: List.map OWrite recs)))))).
  rewrite (gap_view_snap _ _ _ V Nd Hs), He, Hf, (obs_normalb_all _ O).
  rewrite (leqb_refl ent_eqb ent_eqb_refl), (leqb_refl ec_eqb ec_eqb_refl), (leqb_refl Bool.eqb Bool.eqb_reflx). reflexivity.
Qed.

Lemma dagree_all app m recs ls : forallb (dx_sorted app m recs) ls = true -> forallb (dagree app m recs) ls = true.
Proof. intros Hs. rewrite forallb_forall in *. intros fl Ifl. exact (dagree_holds app m recs fl (Hs fl Ifl)). Qed.

(* instances of dagree_holds: all 511 oracles up to length 8, four settings (no append, append, limit 1 with empty records,
   which need no write call, limit 0 where every record rotates); computed: dx_sorted only *)
Example dx_agree_all :
  forallb (dagree false 3 recs5) (all_lists 8) = true
  /\ forallb (dagree true 3 recs5) (all_lists 8) = true
  /\ forallb (dagree false 1 [bs "abcd"; bs ""; bs "efgh"; bs ""; bs "i"]) (all_lists 8) = true
  /\ forallb (dagree true 0 [bs "a"; bs "b"; bs "c"; bs "d"; bs "e"; bs "f"; bs "g"]) (all_lists 8) = true.
Proof. repeat apply conj; apply dagree_all; vm_compute; reflexivity. Qed.
