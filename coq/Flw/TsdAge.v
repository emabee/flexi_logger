(* TimestampsDirect naming with an age criterion (or age-or-size, or size): C09 for whole runs from an empty directory.
   The timed abstract view of NumAgeInv.v (closed files and the current file, each with the instant at which it was
   started) is refined by the model; the roll state's `created` is that instant (the new file is born when it is opened),
   and so is the SECOND OF THE FILE'S KEY, i.e. the time stamp in its name: the name of each file says when the file was
   started, and this instant lies in the period of all records of the file.
   The roll state after a rotation or an initialisation is given by TsdInv.v as a function of the one before
   (reset_roll, roll_of); what it means for the age rule (roll_ok) is said here. *)
Require Import FL.Base.Bytes FL.Base.PathName FL.Fs.Fs FL.Time.Civil FL.Time.Period FL.Time.TsFormat
  FL.Names.FileSpec FL.Names.NamesFacts FL.Names.SortFacts FL.Names.FamilyFacts FL.Flw.Model FL.Flw.ModelFacts
  FL.Flw.NumInv FL.Flw.Run FL.Flw.RunFacts FL.Flw.NumRun FL.Oracles.O_Flw FL.Oracles.O_Age FL.Oracles.ReaderOrder FL.Flw.NumTheorems
  FL.Flw.NumListing FL.Flw.NumRestart FL.Flw.NumAgeInv FL.Flw.NumAge
  FL.Flw.TsTime FL.Flw.TsNames FL.Flw.TsInv FL.Flw.TsRun FL.Flw.TsTheorems FL.Flw.TsReader
  FL.Flw.TsdInv FL.Flw.TsdRun FL.Flw.TsdTheorems.
From Coq Require Import Sorted.
Open Scope nat_scope.

(* ------------------------------------------------------------------ the roll state of a file started at st that holds k bytes *)
Lemma roll_of_ok crit k st : roll_ok crit st (roll_of crit k st).
Proof. destruct crit; cbn; auto. Qed.

Lemma roll_of_reset crit k st now : reset_roll (roll_of crit k st) now = roll_of crit 0 now.
Proof. destruct crit; reflexivity. Qed.

Lemma roll_of_increase crit k st n : increase_size (roll_of crit k st) n = roll_of crit (k + n) st.
Proof. destruct crit; reflexivity. Qed.

Lemma roll_of_decision crit w st (cu : bytes) :
  rotation_necessary w (roll_of crit (N.of_nat (length cu)) st) = due crit (woff w) st cu (wnow w).
Proof. apply roll_decision; [apply roll_of_ok | apply roll_of_size]. Qed.

Lemma reset_roll_ok crit st roll now : roll_ok crit st roll -> roll_ok crit now (reset_roll roll now).
Proof. destruct crit, roll; cbn; tauto. Qed.

(* ------------------------------------------------------------------ the invariant against the timed view *)
(* the roll state's `created` is the start instant of the current file, and the seconds of the keys - the time stamps in
   the names - are the start instants of the files, in order *)
Definition RelTdT (c : config) (crit : criterion) (e lo : Z) (n : nat) (x : sys) (v : tview) : Prop :=
  s_tl x = [] /\ wacts (s_w x) = 0 /\
  match v with
  | None => s_flw x = Some (new_flw c) /\ quiet (s_w x) /\ names (wfs (s_w x)) = [] /\ inodes (wfs (s_w x)) = []
            /\ eoff c (s_w x) = e /\ (lo <= wnow (s_w x))%Z
  | Some (cl, (st, cu)) =>
    exists keys wr roll, s_flw x = Some (st_tsd c e (nth (length (List.map snd cl)) keys kd) roll wr)
      /\ TsdInv c e lo (s_w x) wr keys (List.map snd cl)
      /\ cur_view (s_w x) wr = cu /\ length (List.map snd cl) <= n
      /\ roll_size_ok roll (length cu) /\ roll_ok crit st roll
      /\ List.map fst keys = List.map fst cl ++ [st]
  end.

Lemma RelTdT_RelTd c crit e lo n x v : RelTdT c crit e lo n x v -> RelTd c crit e lo n x (untime v).
Proof.
  intros [Ht [Ha R]]. split; [exact Ht|]. split; [exact Ha|].
  destruct v as [[cl [st cu]]|]; cbn [untime]; [|exact R].
  destruct R as [keys [wr [roll [Es [I [V [Hn [Z [K _]]]]]]]]]. exists keys, wr, roll.
  split; [exact Es|]. split; [exact I|]. split; [exact V|]. split; [exact Hn|]. split; [exact Z|].
  intros m Hm. exact (roll_ok_size _ _ _ _ K Hm).
Qed.

Lemma start_relTdT c crit t0 off : RelTdT c crit (ts_e c off) t0 0 (fst (step (sys0 t0 off) (OStart c))) None.
Proof. cbn. repeat split. cbn. lia. Qed.

(* the first write: the file is started at the present instant, and nothing is due yet *)
Lemma first_write_tdt c crit e lo hi n x b :
  tsdcfg c crit -> tag_ok c -> years_ok e lo hi -> RelTdT c crit e lo n x None ->
  (wnow (s_w x) <= hi)%Z -> (N.of_nat (S n) <= usize_max)%N ->
  exists w' s', write_buffer (new_flw c) (s_w x) b = (Ok tt, w', s', false)
    /\ RelTdT c crit e lo (S n) {| s_flw := Some s'; s_w := w'; s_tl := []; s_dead := s_dead x |}
              (Some ([], (wnow (s_w x), b)))
    /\ same_env (s_w x) w'.
Proof.
  intros Hcfg T Y [Ht [Ha [Es [Q [Hn [Hi [Hoff Hlo]]]]]]] Hhi Hmax.
  destruct (initialize_tsd_empty c crit e lo (s_w x) Hcfg Q Hn Hi Hoff Hlo) as [w1 [wr [Ei [I [V S1]]]]].
  remember (roll_of crit 0 (wnow (s_w x))) as roll eqn:Er.
  assert (A : ActD c e lo (st_tsd c e (wnow (s_w x), 0) roll wr) w1 ([(wnow (s_w x), 0)], [], [], roll)).
  { exists wr. split; [reflexivity|]. split; [exact I | exact V]. }
  destruct (act_write_tsd c crit e lo hi _ w1 _ _ _ roll b Hcfg T Y A ltac:(rewrite (same_env_now _ _ S1); exact Hhi)
              ltac:(cbn [length]; lia)) as [w' [s' [E [S' A']]]].
  (* the file was started at this very instant: no rotation is due *)
  assert (D : rotation_necessary w1 roll = false).
  { pose proof (roll_of_decision crit w1 (wnow (s_w x)) []) as D0. cbn [length N.of_nat] in D0. rewrite Er, D0.
    destruct S1 as [_ [-> _]]. apply due_self. }
  cbn [d_next] in A'. rewrite D in E, A'. destruct A' as [wr' [-> [I' V']]].
  eexists w', _. split; [rewrite (write_buffer_init c (s_w x) b _ _ _ w1 Ei); exact E|].
  pose proof (same_env_trans _ _ _ S1 S') as S2. split; [|exact S2].
  split; [reflexivity|]. split; [exact (same_env_acts _ _ S2 Ha)|].
  exists [(wnow (s_w x), 0)], wr', (increase_size roll (N.of_nat (length b))). cbn [s_flw s_w List.map length].
  split; [reflexivity|]. split; [exact I'|]. split; [exact V'|]. split; [lia|].
  split; [apply (roll_size_increase roll 0); rewrite Er; exact (roll_of_size crit 0 _)|].
  split; [apply roll_ok_increase; rewrite Er; apply roll_of_ok | reflexivity].
Qed.

Lemma step_sync_relTdT c crit e lo n x v o : tsdcfg c crit -> RelTdT c crit e lo n x v -> step x o = sync_step x o.
Proof. intros Hcfg R. exact (step_sync_rel_tsd c crit e lo n x _ o Hcfg (RelTdT_RelTd _ _ _ _ _ _ _ R)). Qed.

Lemma RelTdT_mono c crit e lo n x v : RelTdT c crit e lo n x v -> RelTdT c crit e lo (S n) x v.
Proof.
  intros [Ht [Ha R]]. split; [exact Ht|]. split; [exact Ha|]. destruct v as [[cl [st cu]]|]; [|exact R].
  destruct R as [keys [wr [roll [Es [I [V [Hn ZR]]]]]]]. exists keys, wr, roll.
  split; [exact Es|]. split; [exact I|]. split; [exact V|]. split; [lia | exact ZR].
Qed.

(* the timed view after one operation on a writer that has written: the start instant of a new file is the clock's value,
   in its key as in the roll state *)
Lemma d_next_tview crit w (keys : list key) (cl : list tfile) (st : Z) (cu : bytes) roll o : basic_op o ->
  roll_size_ok roll (length cu) -> roll_ok crit st roll -> List.map fst keys = List.map fst cl ++ [st] ->
  let '(keys', closed', cur', roll') := d_next w (keys, List.map snd cl, cu, roll) o in
  exists cl' st', t_step crit (woff w) (Some (cl, (st, cu))) (wnow w) o = Some (cl', (st', cur'))
    /\ closed' = List.map snd cl' /\ roll_ok crit st' roll' /\ List.map fst keys' = List.map fst cl' ++ [st'].
Proof.
  intros Hb Z K Kf. pose proof (roll_decision crit w st roll cu K Z) as D.
  assert (Kr : List.map fst (keys ++ [(wnow w, count (wnow w) keys)]) = List.map fst (cl ++ [(st, cu)]) ++ [wnow w]).
  { rewrite !map_app. cbn [List.map fst]. f_equal. exact Kf. }
  assert (Same : exists cl' st', Some (cl, (st, cu)) = Some (cl', (st', cu))
            /\ List.map snd cl = List.map snd cl' /\ roll_ok crit st' roll /\ List.map fst keys = List.map fst cl' ++ [st']).
  { exists cl, st. split; [reflexivity|]. split; [reflexivity|]. split; [exact K | exact Kf]. }
  assert (Wr : forall b, let '(keys', closed', cur', roll') := d_next w (keys, List.map snd cl, cu, roll) (OWrite b) in
            exists cl' st', (if due crit (woff w) st cu (wnow w) then Some (cl ++ [(st, cu)], (wnow w, b)) else Some (cl, (st, cu ++ b)))
                            = Some (cl', (st', cur'))
              /\ closed' = List.map snd cl' /\ roll_ok crit st' roll' /\ List.map fst keys' = List.map fst cl' ++ [st']).
  { intros b. cbn [d_next]. rewrite <- D. destruct (rotation_necessary w roll).
    - exists (cl ++ [(st, cu)]), (wnow w). split; [reflexivity|]. split; [rewrite map_app; reflexivity|].
      split; [apply roll_ok_increase, (reset_roll_ok crit st), K | exact Kr].
    - exists cl, st. split; [reflexivity|]. split; [reflexivity|]. split; [apply roll_ok_increase, K | exact Kf]. }
  destruct o; try contradiction.
  - exact (Wr b).
  - exact (Wr b).
  - exact Same.
  - exists (cl ++ [(st, cu)]), (wnow w). split; [reflexivity|]. split; [rewrite map_app; reflexivity|].
    split; [apply (reset_roll_ok crit st), K | exact Kr].
  - exact Same.
  - exact Same.
Qed.

Lemma clock_dt t o : clock t o = (t + dt_of o)%Z.
Proof. destruct o; cbn [clock dt_of]; lia. Qed.
Lemma clock_run_elapsed ops : forall t, clock_run t ops = (t + elapsed ops)%Z.
Proof.
  induction ops as [|o r IH]; intros t; cbn [clock_run fold_left elapsed]; [lia|].
  change (fold_left clock r (clock t o)) with (clock_run (clock t o) r). rewrite IH, clock_dt. lia.
Qed.

(* one basic operation *)
Lemma step_relTdT c crit e lo hi n x v o :
  tsdcfg c crit -> tag_ok c -> years_ok e lo hi -> RelTdT c crit e lo n x v -> basic_op o -> tick_ok o ->
  (wnow (s_w x) <= hi)%Z -> (N.of_nat (S n) <= usize_max)%N ->
  let '(x', ob) := step x o in
  RelTdT c crit e lo (S n) x' (t_step crit (woff (s_w x)) v (wnow (s_w x)) o)
  /\ woff (s_w x') = woff (s_w x) /\ wnow (s_w x') = clock (wnow (s_w x)) o
  /\ (forall b, (o = OWrite b \/ o = OPlain b) -> ob = ObsRes 0 (t_flag crit (woff (s_w x)) v (wnow (s_w x)))).
Proof.
  intros Hcfg T Y R Hb Htk Hhi Hmax. destruct v as [[cl [st cu]]|].
  - destruct R as [Ht [Ha [keys [wr [roll [Es [I [V [Hn [Z [K Kf]]]]]]]]]]].
    assert (Hk : (N.of_nat (length keys) <= usize_max)%N) by (rewrite (td_len _ _ _ _ _ _ _ I); lia).
    assert (A : ActD c e lo (st_tsd c e (nth (length (List.map snd cl)) keys kd) roll wr) (s_w x) (keys, List.map snd cl, cu, roll)).
    { exists wr. split; [reflexivity|]. split; [exact I | exact V]. }
    destruct (act_step_tsd c crit e lo hi x _ keys (List.map snd cl) cu roll o Hcfg T Y Es A Ht Hb Htk Hhi Hk)
      as [x' [s' [E [Es' [A' [Ht' [N' [O' Ac']]]]]]]]. rewrite E.
    pose proof (d_next_view (s_w x) keys (List.map snd cl) cu roll o Hb) as D1.
    pose proof (d_next_tview crit (s_w x) keys cl st cu roll o Hb Z K Kf) as D2.
    destruct (d_next (s_w x) (keys, List.map snd cl, cu, roll) o) as [[[keys' closed'] cur'] roll'].
    destruct D1 as [_ [Hl [Z' _]]]. destruct D2 as [cl' [st' [Et [-> [K' Kf']]]]]. destruct A' as [wr' [-> [I' V']]].
    assert (G : RelTdT c crit e lo (S n) x' (Some (cl', (st', cur')))).
    { split; [exact Ht'|]. split; [rewrite Ac'; exact Ha|]. exists keys', wr', roll'.
      split; [exact Es'|]. split; [exact I'|]. split; [exact V'|]. split; [lia|]. split; [exact (Z' Z)|]. split; [exact K' | exact Kf']. }
    split; [exact (eq_ind_r (RelTdT c crit e lo (S n) x') G Et)|]. split; [exact O'|]. split; [rewrite clock_dt; exact N'|].
    intros b Ho. cbn [t_flag]. rewrite <- (roll_decision crit (s_w x) st roll cu K Z). destruct Ho as [-> | ->]; reflexivity.
  - pose proof R as [Ht [Ha [Es R0]]]. rewrite (step_sync_relTdT c crit e lo n x None o Hcfg R).
    destruct o; try contradiction; cbn [sync_step clock t_step t_flag].
    + (* OWrite *)
      destruct (first_write_tdt c crit e lo hi n x (s_tl x ++ b) Hcfg T Y R Hhi Hmax) as [w' [s' [E [R' S']]]].
      rewrite Es. cbn [new_flw f_poisoned]. fold (new_flw c). rewrite E. cbn [s_w]. rewrite Ht in R'.
      split; [exact R'|]. split; [apply S'|]. split; [apply S'|]. intros b0 _. reflexivity.
    + (* OPlain *)
      destruct (first_write_tdt c crit e lo hi n x b Hcfg T Y R Hhi Hmax) as [w' [s' [E [R' S']]]].
      rewrite Es. cbn [new_flw f_poisoned]. fold (new_flw c). rewrite E. cbn [code_of s_w]. rewrite Ht.
      split; [exact R'|]. split; [apply S'|]. split; [apply S'|]. intros b0 _. reflexivity.
    + (* OFlush *)
      rewrite Es. cbn [new_flw f_poisoned flush_state f_inner s_w].
      split; [|split; [reflexivity | split; [reflexivity | intros b [H|H]; discriminate]]].
      split; [exact Ht|]. split; [exact Ha|]. split; [reflexivity | exact R0].
    + (* OTrigger *)
      rewrite Es. cbn [new_flw f_poisoned f_cfg f_inner mount_next with_inner code_of s_w].
      split; [|split; [reflexivity | split; [reflexivity | intros b [H|H]; discriminate]]].
      split; [exact Ht|]. split; [exact Ha|]. split; [reflexivity | exact R0].
    + (* OTick *)
      cbn [s_w set_now woff wnow tick_ok] in *.
      split; [|split; [reflexivity | split; [reflexivity | intros b [H|H]; discriminate]]].
      split; [exact Ht|]. split; [exact Ha|]. cbn [s_flw s_w]. destruct R0 as [Q [Hn [Hi [Hoff Hlo]]]].
      repeat split; try assumption; try apply Q. cbn [set_now wnow]. lia.
    + (* OSnap *)
      split; [apply RelTdT_mono; exact R|]. split; [reflexivity|]. split; [reflexivity | intros b [H|H]; discriminate].
Qed.

(* a whole run: the invariant, the clock, and every rotation flag *)
Lemma run_relTdT c crit e lo hi : tsdcfg c crit -> tag_ok c -> years_ok e lo hi ->
  forall ops x v n, RelTdT c crit e lo n x v -> Forall basic_op ops -> Forall tick_ok ops ->
  (wnow (s_w x) + elapsed ops <= hi)%Z -> (N.of_nat (n + length ops) <= usize_max)%N ->
  let off := woff (s_w x) in let t := wnow (s_w x) in
  RelTdT c crit e lo (n + length ops) (fst (run x ops)) (t_run crit off v t ops)
  /\ woff (s_w (fst (run x ops))) = off /\ wnow (s_w (fst (run x ops))) = clock_run t ops
  /\ (forall i o, nth_error ops i = Some o -> forall b, (o = OWrite b \/ o = OPlain b) ->
        nth_error (snd (run x ops)) i
        = Some (ObsRes 0 (t_flag crit off (t_run crit off v t (firstn i ops)) (clock_run t (firstn i ops))))).
Proof.
  intros Hcfg T Y. induction ops as [|o r IH]; intros x v n R Hb Htk Hhi Hmax; cbn zeta.
  - cbn [run fst snd length t_run]. rewrite Nat.add_0_r.
    split; [exact R|]. split; [reflexivity|]. split; [reflexivity|]. intros i o H. destruct i; discriminate.
  - cbn [run]. inversion Hb as [|o' r' Ho Hr]; subst. inversion Htk as [|o' r' Hto Htr]; subst.
    cbn [elapsed length] in *. pose proof (elapsed_nonneg r Htr) as Er.
    assert (Hdt : (0 <= dt_of o)%Z) by (destruct o; cbn [dt_of tick_ok] in *; lia).
    pose proof (step_relTdT c crit e lo hi n x v o Hcfg T Y R Ho Hto ltac:(lia) ltac:(lia)) as S. destruct (step x o) as [x1 ob] eqn:Est.
    destruct S as [R1 [O1 [N1 F1]]].
    assert (Hhi1 : (wnow (s_w x1) + elapsed r <= hi)%Z) by (rewrite N1, clock_dt; lia).
    specialize (IH x1 _ (S n) R1 Hr Htr Hhi1 ltac:(lia)). cbn zeta in IH. rewrite O1, N1 in IH.
    destruct (run x1 r) as [x2 obs] eqn:Er'. cbn [fst snd] in *.
    replace (n + S (length r)) with (S n + length r) by lia.
    destruct IH as [IH1 [IH2 [IH3 IH4]]].
    split; [exact IH1|]. split; [exact IH2|]. split; [exact IH3|].
    intros i o0 Hi b Hw. destruct i as [|i].
    + cbn in Hi. injection Hi as <-. cbn [nth_error firstn t_run clock_run fold_left]. f_equal. exact (F1 b Hw).
    + cbn [nth_error firstn t_run clock_run fold_left] in *. exact (IH4 i o0 Hi b Hw).
Qed.

(* ------------------------------------------------------------------ stop: what the reader finds, with the keys' seconds *)
Lemma stop_relTdT c crit e lo n x v : tsdcfg c crit -> RelTdT c crit e lo n x v ->
  let '(x', _) := step x OStop in
  match v with
  | None => names (wfs (s_w x')) = []
  | Some (cl, (st, cu)) =>
    exists keys, tsd_view c e (wfs (s_w x')) keys (List.map snd cl ++ [cu]) /\ keys_ok keys
                 /\ (forall k, In k keys -> (lo <= fst k <= wnow (s_w x))%Z)
                 /\ List.map fst keys = List.map fst cl ++ [st]
  end.
Proof.
  intros Hcfg R0. rewrite (step_sync_relTdT c crit e lo n x v OStop Hcfg R0). destruct R0 as [Ht [Ha R]].
  destruct v as [[cl [st cu]]|].
  - destruct R as [keys [wr [roll [Es [I [V [_ [_ [_ Kf]]]]]]]]].
    assert (A : ActD c e lo (st_tsd c e (nth (length (List.map snd cl)) keys kd) roll wr) (s_w x) (keys, List.map snd cl, cu, roll)).
    { exists wr. split; [reflexivity|]. split; [exact I | exact V]. }
    pose proof (stop_view_tsd c e lo x _ keys (List.map snd cl) cu roll Es A) as S. destruct (sync_step x OStop) as [x' ob].
    exists keys. split; [exact S|]. split; [exact (td_keys _ _ _ _ _ _ _ I)|]. split; [exact (td_range _ _ _ _ _ _ _ I) | exact Kf].
  - destruct R as [Es [Q [Hn Hi]]]. cbn [sync_step]. rewrite Es. cbn [new_flw f_poisoned drop_state shutdown_state f_inner s_w]. exact Hn.
Qed.

(* ------------------------------------------------------------------ the view of a whole run *)
Lemma run_view_tsd_t c crit t0 off ops :
  tsdcfg c crit -> tag_ok c -> Forall basic_op ops -> Forall tick_ok ops ->
  (0 <= t0 + ts_e c off)%Z -> (t0 + elapsed ops + ts_e c off < sec_max)%Z -> (N.of_nat (length ops) <= usize_max)%N ->
  exists x0 ob0, step (sys0 t0 off) (OStart c) = (x0, ob0) /\
    let v := t_run crit off None t0 ops in
    let f := wfs (s_w (fst (run (sys0 t0 off) (OStart c :: ops ++ [OStop])))) in
    (exists keys, tsd_view c (ts_e c off) f keys (List.map snd (tfiles v)) /\ keys_ok keys
                  /\ (forall k, In k keys -> (t0 <= fst k <= t0 + elapsed ops)%Z)
                  /\ List.map fst keys = List.map fst (tfiles v))
    /\ (forall i o, nth_error ops i = Some o -> forall b, (o = OWrite b \/ o = OPlain b) ->
          nth_error (snd (run x0 ops)) i
          = Some (ObsRes 0 (t_flag crit off (t_run crit off None t0 (firstn i ops)) (clock_run t0 (firstn i ops))))).
Proof.
  intros Hcfg T Hb Htk Hlo Hhi Hmax. cbn [run]. destruct (step (sys0 t0 off) (OStart c)) as [x0 ob0] eqn:E0.
  exists x0, ob0. split; [reflexivity|].
  pose proof (start_relTdT c crit t0 off) as R0. pose proof (start_clock c t0 off) as [N0 O0].
  rewrite E0 in R0, N0, O0. cbn [fst] in R0, N0, O0.
  assert (Y : years_ok (ts_e c off) t0 (t0 + elapsed ops)) by (split; assumption).
  rewrite run_app.
  pose proof (run_relTdT c crit _ _ _ Hcfg T Y ops x0 None 0 R0 Hb Htk ltac:(lia) ltac:(cbn [Nat.add]; exact Hmax)) as [R1 [O1 [W1 F1]]].
  rewrite N0, O0 in *.
  destruct (run x0 ops) as [x1 obs1]. cbn [fst snd] in *.
  pose proof (stop_relTdT c crit _ _ _ x1 _ Hcfg R1) as S. cbn [run]. destruct (step x1 OStop) as [x2 ob2]. cbn [fst].
  split; [|exact F1].
  destruct (t_run crit off None t0 ops) as [[cl [st cu]]|]; cbn [tfiles].
  - destruct S as [keys [V [K [Rg Kf]]]]. exists keys. rewrite !map_app. cbn [List.map snd fst].
    split; [exact V|]. split; [exact K|]. split; [|exact Kf].
    intros k Ik. specialize (Rg k Ik). rewrite W1, clock_run_elapsed in Rg. lia.
  - exists []. split; [apply tsd_view_nil; auto|]. split; [constructor|]. split; [intros k [] | reflexivity].
Qed.

(* ------------------------------------------------------------------ 1. the rotation flags *)
(* The flag observed for the i-th operation, a write at clock value t = t0 + the ticks before it, is the oracle's decision
   `rotate_due` on the state before it: the start instant and the content (disk + buffer) of the file being written, which
   is the last file of the oracle's partition of the history so far.  No file yet: no rotation.  The period is taken in
   LOCAL time (offset off) whether or not use_utc is set (use_utc concerns the text of the time stamp in the name only). *)
Theorem timestampsdirect_age_flags c crit t0 off ops i o b :
  tsdcfg c crit -> tag_ok c -> Forall basic_op ops -> Forall tick_ok ops ->
  (0 <= t0 + ts_e c off)%Z -> (t0 + elapsed ops + ts_e c off < sec_max)%Z -> (N.of_nat (length ops) <= usize_max)%N ->
  nth_error ops i = Some o -> (o = OWrite b \/ o = OPlain b) ->
  nth_error (snd (run (sys0 t0 off) (OStart c :: ops))) (S i)
  = Some (ObsRes 0
      match last_opt (tpartition (age_of crit) (lim_of crit) off [] None (titems t0 (firstn i ops))) with
      | None => false
      | Some (start, content) => rotate_due (age_of crit) (lim_of crit) off start content (clock_run t0 (firstn i ops))
      end).
Proof.
  intros Hcfg T Hb Htk Hlo Hhi Hmax Hi Ho.
  destruct (run_view_tsd_t c crit t0 off ops Hcfg T Hb Htk Hlo Hhi Hmax) as [x0 [ob0 [E0 [_ Hr]]]].
  cbn [run]. rewrite E0. destruct (run x0 ops) as [x1 obs1]. cbn [snd nth_error] in *. rewrite (Hr i o Hi b Ho). do 2 f_equal.
  pose proof (t_run_partition crit off (firstn i ops) None t0) as P. cbn [tcl tcu] in P. rewrite <- P, tfiles_last.
  unfold t_flag, tcu, due, age_of, lim_of. destruct (t_run crit off None t0 (firstn i ops)) as [[cl [st cu]]|]; reflexivity.
Qed.
Print Assumptions timestampsdirect_age_flags.

(* the same for the pure age criterion, the decision spelled out: a write rotates exactly when it comes in another period
   than the one in which the file was started *)
Corollary timestampsdirect_age_flags_age c a t0 off ops i o b :
  tsdcfg c (CAge a) -> tag_ok c -> Forall basic_op ops -> Forall tick_ok ops ->
  (0 <= t0 + ts_e c off)%Z -> (t0 + elapsed ops + ts_e c off < sec_max)%Z -> (N.of_nat (length ops) <= usize_max)%N ->
  nth_error ops i = Some o -> (o = OWrite b \/ o = OPlain b) ->
  nth_error (snd (run (sys0 t0 off) (OStart c :: ops))) (S i)
  = Some (ObsRes 0
      match last_opt (tpartition (Some a) None off [] None (titems t0 (firstn i ops))) with
      | None => false
      | Some (start, _) => negb (period_of a (start + off) =? period_of a (clock_run t0 (firstn i ops) + off))%Z
      end).
Proof.
  intros Hcfg T Hb Htk Hlo Hhi Hmax Hi Ho. rewrite (timestampsdirect_age_flags c (CAge a) t0 off ops i o b Hcfg T Hb Htk Hlo Hhi Hmax Hi Ho).
  do 2 f_equal. cbn [age_of lim_of crit_parts fst snd]. destruct (last_opt _) as [[st cu]|]; [|reflexivity].
  unfold rotate_due. apply Bool.orb_false_r.
Qed.

(* ------------------------------------------------------------------ 2. the files *)
(* After the writer is stopped the directory consists exactly (tsd_view) of the files that the oracle computes from the
   timed history, in the order of the keys, and THE SECOND OF EACH KEY IS THE INSTANT AT WHICH THE FILE WAS STARTED: the
   instant of the first record of the file or of the rotate() that created it. *)
Theorem timestampsdirect_age_partition c crit t0 off ops :
  tsdcfg c crit -> tag_ok c -> Forall basic_op ops -> Forall tick_ok ops ->
  (0 <= t0 + ts_e c off)%Z -> (t0 + elapsed ops + ts_e c off < sec_max)%Z -> (N.of_nat (length ops) <= usize_max)%N ->
  let tf := tpartition (age_of crit) (lim_of crit) off [] None (titems t0 ops) in
  exists keys,
    tsd_view c (ts_e c off) (wfs (s_w (fst (run (sys0 t0 off) (OStart c :: ops ++ [OStop]))))) keys (List.map snd tf)
    /\ List.map fst keys = List.map fst tf
    /\ keys_ok keys /\ (forall k, In k keys -> (t0 <= fst k <= t0 + elapsed ops)%Z).
Proof.
  intros Hcfg T Hb Htk Hlo Hhi Hmax tf.
  destruct (run_view_tsd_t c crit t0 off ops Hcfg T Hb Htk Hlo Hhi Hmax) as [x0 [ob0 [E0 [[keys [V [K [Rg Kf]]]] _]]]].
  cbv zeta in *. pose proof (t_run_partition crit off ops None t0) as P. cbn [tcl tcu] in P. rewrite P in V, Kf.
  exists keys. auto.
Qed.
Print Assumptions timestampsdirect_age_partition.

(* the reader (time stamp, then restart counter) finds these contents: the executable oracle of C09 accepts *)
Corollary timestampsdirect_age_oracle c crit t0 off ops :
  tsdcfg c crit -> tag_ok c -> not_gz c -> Forall basic_op ops -> Forall tick_ok ops ->
  (0 <= t0 + ts_e c off)%Z -> (t0 + elapsed ops + ts_e c off < sec_max)%Z -> (N.of_nat (length ops) <= usize_max)%N ->
  oracle_C09_partition crit off None (titems t0 ops)
    (family_in_order c (snap_of (fst (run (sys0 t0 off) (OStart c :: ops ++ [OStop]))))) = true.
Proof.
  intros Hcfg T G Hb Htk Hlo Hhi Hmax.
  destruct (timestampsdirect_age_partition c crit t0 off ops Hcfg T Hb Htk Hlo Hhi Hmax) as [keys [V [_ [K Rg]]]].
  assert (Y : years_ok (ts_e c off) t0 (t0 + elapsed ops)) by (split; assumption).
  pose proof (tsd_reader_order c crit _ _ _ _ keys _ Hcfg G Y Rg K V) as E. rewrite <- snap_of_list in E.
  rewrite E. unfold oracle_C09_partition, age_of, lim_of. destruct (crit_parts crit) as [a lim]. apply list_beq2_refl.
Qed.
Print Assumptions timestampsdirect_age_oracle.

(* ------------------------------------------------------------------ 3. the names *)
(* the text of the name of the i-th file: the time stamp of its start instant - in local time, or in UTC with use_utc:
   O_Age.expected_ts_infix - followed by .restart-NNNN when it is not the first file started in that second; NNNN + 1 is the
   number of earlier files started in the same second *)
Lemma infix_of_expected c off t m :
  infix_of (ts_e c off) (t, m)
  = expected_ts_infix (c_utc c) off std_fmt t
    ++ match m with O => [] | S k => restart_tag ++ pad_left 4 48%N (dec (N.of_nat k)) end.
Proof.
  rewrite infix_of_text. unfold expected_ts_infix, ts_e. destruct (c_utc c); [rewrite Z.add_0_r|]; reflexivity.
Qed.

Theorem timestampsdirect_age_names c crit t0 off ops :
  tsdcfg c crit -> tag_ok c -> Forall basic_op ops -> Forall tick_ok ops ->
  (0 <= t0 + ts_e c off)%Z -> (t0 + elapsed ops + ts_e c off < sec_max)%Z -> (N.of_nat (length ops) <= usize_max)%N ->
  let tf := tpartition (age_of crit) (lim_of crit) off [] None (titems t0 ops) in
  let f := wfs (s_w (fst (run (sys0 t0 off) (OStart c :: ops ++ [OStop])))) in
  forall i st d, nth_error tf i = Some (st, d) ->
    let pos := length (filter (fun x : Z * bytes => Z.eqb (fst x) st) (firstn i tf)) in
    exists j, lookup f (nm c (expected_ts_infix (c_utc c) off std_fmt st
                               ++ match pos with O => [] | S k => restart_tag ++ pad_left 4 48%N (dec (N.of_nat k)) end)) = Some j
              /\ plain (inode f j) /\ content f j = d.
Proof.
  intros Hcfg T Hb Htk Hlo Hhi Hmax tf f i st d Hi pos.
  destruct (timestampsdirect_age_partition c crit t0 off ops Hcfg T Hb Htk Hlo Hhi Hmax) as [keys [V [Kf [K Rg]]]].
  fold tf in V, Kf. fold f in V. destruct V as [Hl [Hcl _]].
  assert (Hi' : i < length tf) by (apply nth_error_Some; rewrite Hi; discriminate).
  rewrite map_length in Hl, Hcl.
  destruct (Hcl i Hi') as [j [Lj [Pj Cj]]].
  assert (Ed : nth i (List.map snd tf) [] = d).
  { rewrite (nth_indep _ [] (snd (st, d))) by (rewrite map_length; exact Hi'). rewrite map_nth.
    rewrite (nth_error_nth tf i _ Hi). reflexivity. }
  assert (Ek1 : fst (nth i keys kd) = st).
  { pose proof (map_nth fst keys kd i) as X. rewrite Kf in X. etransitivity; [symmetry; exact X|].
    rewrite (nth_indep _ (fst kd) (fst (st, d))) by (rewrite map_length; exact Hi'). rewrite map_nth.
    rewrite (nth_error_nth tf i _ Hi). reflexivity. }
  assert (Ek2 : snd (nth i keys kd) = pos).
  { rewrite (keys_position keys K i) by lia. rewrite Ek1. unfold count, pos.
    rewrite <- (map_length fst (filter _ (firstn i keys))), <- (map_length fst (filter _ (firstn i tf))).
    assert (F : forall A (l : list (Z * A)), List.map fst (filter (fun k => (fst k =? st)%Z) l) = filter (fun z => (z =? st)%Z) (List.map fst l)).
    { intros A l. induction l as [|x l IH]; [reflexivity|]. cbn [filter List.map]. destruct (fst x =? st)%Z; cbn [List.map]; rewrite IH; reflexivity. }
    rewrite !F, <- !firstn_map. do 3 f_equal. exact Kf. }
  exists j. split; [|split; [exact Pj | rewrite Cj; exact Ed]].
  rewrite <- Lj. f_equal. unfold kname. f_equal.
  destruct (nth i keys kd) as [t m]. cbn [fst snd] in Ek1, Ek2. subst t m. symmetry. apply infix_of_expected.
Qed.
Print Assumptions timestampsdirect_age_names.

(* ------------------------------------------------------------------ 4. the property, without the oracle *)
(* The record-level specification of NumAge.v (age_files: which record goes into which file, when each file was started and
   whether by rotate()) is independent of the naming.  For TimestampsDirect naming the directory consists of these files, and
   the second of the i-th key - the time stamp in the i-th name - is the start instant of the i-th file. *)
Lemma tfiles_forget_fst v : List.map fst (tfiles (forget v)) = List.map rstart (rfiles v).
Proof. destruct v as [[cl cur]|]; [|reflexivity]. cbn [forget tfiles rfiles]. rewrite !map_app, map_map. reflexivity. Qed.

Theorem timestampsdirect_age_records c crit a t0 off ops :
  tsdcfg c crit -> tag_ok c -> Forall basic_op ops -> Forall tick_ok ops ->
  (0 <= t0 + ts_e c off)%Z -> (t0 + elapsed ops + ts_e c off < sec_max)%Z -> (N.of_nat (length ops) <= usize_max)%N ->
  age_of crit = Some a ->
  let fl := age_files crit off t0 ops in
  exists keys,
    tsd_view c (ts_e c off) (wfs (s_w (fst (run (sys0 t0 off) (OStart c :: ops ++ [OStop]))))) keys (List.map rbytes fl)
    /\ List.map fst keys = List.map rstart fl
    /\ keys_ok keys
    /\ concat (List.map rrecs fl) = trecs t0 ops
    /\ (forall f, In f fl -> one_period a off f /\ starts_with_record f)
    /\ trig_starts fl = trig_times false t0 ops
    /\ (forall i f1 f2, nth_error fl i = Some f1 -> nth_error fl (S i) = Some f2 -> was_due crit off f1 f2)
    /\ (forall i f1 f2, nth_error fl i = Some f1 -> nth_error fl (S i) = Some f2 -> start_le f1 f2).
Proof.
  intros Hcfg T Hb Htk Hlo Hhi Hmax Ha fl. unfold fl, age_files.
  destruct (timestampsdirect_age_partition c crit t0 off ops Hcfg T Hb Htk Hlo Hhi Hmax) as [keys [V [Kf [K Rg]]]].
  pose proof (t_run_partition crit off ops None t0) as E. cbn [tcl tcu] in E. rewrite <- E in V, Kf.
  change (@None (list tfile * tfile)) with (forget None) in V, Kf. rewrite <- r_run_forget in V, Kf.
  rewrite tfiles_forget in V. rewrite tfiles_forget_fst in Kf.
  exists keys. split; [exact V|]. split; [exact Kf|]. split; [exact K|].
  split. { rewrite r_run_recs. reflexivity. }
  split. { apply Forall_forall. apply (r_run_files_ok crit a off ops Ha). constructor. }
  split. { rewrite r_run_trigs. reflexivity. }
  split. { apply chain_nth. apply r_run_chain. exact Logic.I. }
  apply chain_nth. apply r_run_mono; [exact Htk|]. split; exact Logic.I.
Qed.
Print Assumptions timestampsdirect_age_records.

(* C09 for TimestampsDirect naming, the headline: the time stamp in the name of a file is the instant at which the file was
   started, and it lies in the period (day / hour / minute / second of LOCAL time) of every record of the file; a file that
   was not started by rotate() starts with its first record, at that very instant, and follows a file for which the
   rotation was due at that instant (another period, or - age-or-size - more than the limit) *)
Corollary timestampsdirect_name_in_period c crit a t0 off ops :
  tsdcfg c crit -> tag_ok c -> Forall basic_op ops -> Forall tick_ok ops ->
  (0 <= t0 + ts_e c off)%Z -> (t0 + elapsed ops + ts_e c off < sec_max)%Z -> (N.of_nat (length ops) <= usize_max)%N ->
  age_of crit = Some a ->
  let fl := age_files crit off t0 ops in
  exists keys,
    tsd_view c (ts_e c off) (wfs (s_w (fst (run (sys0 t0 off) (OStart c :: ops ++ [OStop]))))) keys (List.map rbytes fl)
    /\ keys_ok keys
    /\ forall i f, nth_error fl i = Some f ->
         fst (nth i keys kd) = rstart f
         /\ (forall t b, In (t, b) (rrecs f) -> period_of a (t + off) = period_of a (fst (nth i keys kd) + off))
         /\ (rtrig f = false -> exists b rest, rrecs f = (fst (nth i keys kd), b) :: rest).
Proof.
  intros Hcfg T Hb Htk Hlo Hhi Hmax Ha fl.
  destruct (timestampsdirect_age_records c crit a t0 off ops Hcfg T Hb Htk Hlo Hhi Hmax Ha) as [keys [V [Kf [K [_ [P _]]]]]].
  fold fl in V, Kf, P. exists keys. split; [exact V|]. split; [exact K|].
  intros i f Hi.
  assert (Hi' : i < length fl) by (apply nth_error_Some; rewrite Hi; discriminate).
  assert (Ek : fst (nth i keys kd) = rstart f).
  { pose proof (map_nth fst keys kd i) as X. rewrite Kf in X. etransitivity; [symmetry; exact X|].
    rewrite (nth_indep _ (fst kd) (rstart f)) by (rewrite map_length; exact Hi'). rewrite map_nth.
    rewrite (nth_error_nth fl i _ Hi). reflexivity. }
  destruct (P f (nth_error_In _ _ Hi)) as [P1 P2]. rewrite Ek. split; [reflexivity|]. split; [exact P1 | exact P2].
Qed.
Print Assumptions timestampsdirect_name_in_period.

(* ------------------------------------------------------------------ examples (non-vacuity) *)
Import String.StringSyntax.
Open Scope string_scope.

(* Age::Minute, the history NumAge.minute_ops: the writer is started 59 s before the full minute, a record every 30 s -
   two records in minute 0, two in minute 1, one in minute 2 -, then rotate() and one more record in minute 2 *)
Definition tsda_c : config := tsd_cfg (ex_sp "log") false (CAge AMinute) (Some 8%nat) false.
Lemma tsda_c_ok : tsdcfg tsda_c (CAge AMinute).
Proof. apply tsd_cfg_ok. reflexivity. Qed.
Lemma tsda_c_tag_ok : tag_ok tsda_c.
Proof. apply tag_free_ok. split; vm_compute; reflexivity. Qed.
Lemma tsda_c_not_gz : not_gz tsda_c.
Proof. vm_compute. reflexivity. Qed.
Lemma minute_ops_basic : Forall basic_op minute_ops.
Proof. repeat constructor. Qed.
Lemma minute_ops_ticks : Forall tick_ok minute_ops.
Proof. repeat (apply Forall_cons; [cbn [tick_ok]; first [exact Logic.I | lia]|]). apply Forall_nil. Qed.

(* the directory that the model computes, the flags, and what the oracle expects: each name carries the instant of the first
   record of the file (seconds 1, 61, 121) or of the rotate() (121 again: restart-0000) *)
Example tsd_age_minute_dir :
  snap_of (fst (run (sys0 1 0) (OStart tsda_c :: minute_ops ++ [OStop])))
  = [ (bs "app_r1970-01-01_00-00-01.log", 0%N, bs "ab");
      (bs "app_r1970-01-01_00-01-01.log", 0%N, bs "cd");
      (bs "app_r1970-01-01_00-02-01.log", 0%N, bs "e");
      (bs "app_r1970-01-01_00-02-01.restart-0000.log", 0%N, bs "f") ]
  /\ List.map rot_of (snd (run (sys0 1 0) (OStart tsda_c :: minute_ops)))
     = [false; false; false; false; false; true; false; false; false; false; true; false; false]
  /\ tpartition (Some AMinute) None 0 [] None (titems 1 minute_ops) = [(1%Z, bs "ab"); (61%Z, bs "cd"); (121%Z, bs "e"); (121%Z, bs "f")].
Proof. repeat split; vm_compute; reflexivity. Qed.

(* the theorems apply: their hypotheses can be met *)
Example tsd_age_partition_instance :
  exists keys,
    tsd_view tsda_c 0 (wfs (s_w (fst (run (sys0 1 0) (OStart tsda_c :: minute_ops ++ [OStop]))))) keys [bs "ab"; bs "cd"; bs "e"; bs "f"]
    /\ List.map fst keys = [1%Z; 61%Z; 121%Z; 121%Z]
    /\ keys_ok keys /\ (forall k, In k keys -> (1 <= fst k <= 121)%Z).
Proof.
  apply (timestampsdirect_age_partition tsda_c (CAge AMinute) 1 0 minute_ops tsda_c_ok tsda_c_tag_ok minute_ops_basic minute_ops_ticks).
  - change (0 <= 1)%Z. lia.
  - change (121 < sec_max)%Z. unfold sec_max. lia.
  - vm_compute. discriminate.
Qed.

Example tsd_age_flag_instance :
  nth_error (snd (run (sys0 1 0) (OStart tsda_c :: minute_ops))) 5 = Some (ObsRes 0 true).
Proof.
  rewrite (timestampsdirect_age_flags_age tsda_c AMinute 1 0 minute_ops 4 (OWrite (bs "c")) (bs "c") tsda_c_ok tsda_c_tag_ok
             minute_ops_basic minute_ops_ticks).
  - vm_compute. reflexivity.
  - change (0 <= 1)%Z. lia.
  - change (121 < sec_max)%Z. unfold sec_max. lia.
  - vm_compute. discriminate.
  - reflexivity.
  - left. reflexivity.
Qed.

Example tsd_age_oracle_instance :
  oracle_C09_partition (CAge AMinute) 0 None (titems 1 minute_ops)
    (family_in_order tsda_c (snap_of (fst (run (sys0 1 0) (OStart tsda_c :: minute_ops ++ [OStop]))))) = true.
Proof.
  apply (timestampsdirect_age_oracle tsda_c (CAge AMinute) 1 0 minute_ops tsda_c_ok tsda_c_tag_ok tsda_c_not_gz minute_ops_basic minute_ops_ticks).
  - change (0 <= 1)%Z. lia.
  - change (121 < sec_max)%Z. unfold sec_max. lia.
  - vm_compute. discriminate.
Qed.

(* the record-level files of this history: start instant, started by rotate()?, records with their instants *)
Example tsd_age_records_instance :
  age_files (CAge AMinute) 0 1 minute_ops
  = [ {| rstart := 1; rtrig := false; rrecs := [(1%Z, bs "a"); (31%Z, bs "b")] |};
      {| rstart := 61; rtrig := false; rrecs := [(61%Z, bs "c"); (91%Z, bs "d")] |};
      {| rstart := 121; rtrig := false; rrecs := [(121%Z, bs "e")] |};
      {| rstart := 121; rtrig := true; rrecs := [(121%Z, bs "f")] |} ].
Proof. vm_compute. reflexivity. Qed.

(* age-or-size, limit 1 byte: "ab" is closed by the write of "c" (size), "cd" by the write of "e" (another minute) *)
Example tsd_age_or_size_dir :
  snap_of (fst (run (sys0 1 0) (OStart (tsd_cfg (ex_sp "log") false (CAgeOrSize AMinute 1) (Some 8%nat) false) ::
                                [OWrite (bs "ab"); OWrite (bs "c"); OWrite (bs "d"); OTick 60; OWrite (bs "e"); OStop])))
  = [ (bs "app_r1970-01-01_00-00-01.log", 0%N, bs "ab");
      (bs "app_r1970-01-01_00-00-01.restart-0000.log", 0%N, bs "cd");
      (bs "app_r1970-01-01_00-01-01.log", 0%N, bs "e") ].
Proof. vm_compute. reflexivity. Qed.

(* OBSERVATION (use_utc with a zone offset that is not a multiple of the period): the rotation decision compares LOCAL
   periods (age_rotation_necessary uses local_civil whatever use_utc says), the names show UTC.  Zone offset +30 min, Age::Hour:
   "a" is written at 22:13:20 UTC = 22:43:20 local, "b" at 22:43:20 UTC = 23:13:20 local - another local hour: rotation -,
   "c" at 23:13:20 UTC = 23:43:20 local - the same local hour: no rotation.  Both file names lie in UTC hour 22, and the
   second file holds records of the UTC hours 22 and 23.  The theorems above hold (the name IS the start instant, the periods
   are local ones); read as UTC texts the names do not show "one hour per file". *)
Definition tsda_c2 : config := tsd_cfg (ex_sp "log") true (CAge AHour) None true.
Definition tsda_ops2 : list op := [OWrite (bs "a"); OTick 1800; OWrite (bs "b"); OTick 1800; OWrite (bs "c")].
Example tsd_age_utc_names_local_periods :
  snap_of (fst (run (sys0 1700000000 1800) (OStart tsda_c2 :: tsda_ops2 ++ [OStop])))
  = [ (bs "app_r2023-11-14_22-13-20.log", 0%N, bs "a"); (bs "app_r2023-11-14_22-43-20.log", 0%N, bs "bc") ]
  /\ tpartition (Some AHour) None 1800 [] None (titems 1700000000 tsda_ops2) = [(1700000000%Z, bs "a"); (1700001800%Z, bs "bc")]
  /\ List.map (fun x : Z * bytes => expected_ts_infix true 1800 std_fmt (fst x)) (tpartition (Some AHour) None 1800 [] None (titems 1700000000 tsda_ops2))
     = [bs "r2023-11-14_22-13-20"; bs "r2023-11-14_22-43-20"].
Proof. repeat split; vm_compute; reflexivity. Qed.
