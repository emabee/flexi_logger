(* Foreign files with the time-stamp namings (Timestamps, TimestampsDirect): the family test, and the embedding lemmas
   for what these namings list in the directory: collision_free_infix (two listings with the filter "the infix IS this
   time stamp" and two lookups: the new name and the name of its archive) and latest_timestamp_file (one listing with
   the time-stamp filter; before the repair of the code it was the number filter).  The lemmas hold for every world,
   faults and kills included.

   The family test (fam_q): the listing of the model extracts an infix from the name (infix_candidate: the name ends
   with the suffix asked for, starts with the fixed name part and "_"; a tail ".restart-NNNN" is cut off) and the infix
   passes the infix filter of these namings: the time-stamp filter IFTs std_fmt (chrono's parser reads it as
   r%Y-%m-%d_%H-%M-%S): cleanup, the queries and - since the repair of the code - latest_timestamp_file.  (Before the
   repair latest_timestamp_file listed with the number filter IFNum, which accepted "r", a digit and at least one more
   byte, and the family test had to be "the time-stamp filter OR the number filter": a file with a number infix like
   a_r00001.log or a_r1x.log was not foreign for these namings.  Now it is.)
   The other kind of listing, "the infix is the time stamp T" (collision_free_infix), accepts nothing that this filter
   rejects as long as T is the text of an instant of the years 1970..9999.
   tsd_member: the name passes the test as a plain file or as an archive, or it is the name of a plain member followed by
   ".gz" (collision_free_infix looks that name up; unless the suffix of the family is "gz" this is nothing new:
   tsd_member_simple). *)
Require Import FL.Base.Bytes FL.Base.BytesFacts FL.Base.PathName FL.Fs.Fs FL.Fs.FsFacts FL.Time.Civil FL.Time.TsFormat
  FL.Names.FileSpec FL.Names.NamesFacts FL.Names.SortFacts FL.Names.FamilyFacts
  FL.Flw.Model FL.Flw.ModelFacts FL.Flw.NumFs FL.Flw.NumInv FL.Flw.NumListing FL.Flw.CleanupFacts
  FL.Flw.Run FL.Flw.TsCal FL.Flw.TsTime FL.Flw.TsNames FL.Flw.TsInv FL.Flw.TsRun FL.Flw.TsParse
  FL.Flw.ForeignFs FL.Flw.ForeignSort FL.Flw.ForeignModel.
From Coq Require Import ZifyN ZifyNat ZifyBool.
Open Scope nat_scope.

(* ------------------------------------------------------------------ the family test *)
Definition ts_like (i : bytes) : bool := filter_infix 0 (IFTs std_fmt) i.

Definition fam_q (c : config) (o : option bytes) (n : bytes) : bool :=
  match infix_candidate (fsfx (c_spec c)) o (fixed0 c) n with Some i => ts_like i | None => false end.

Definition tsd_member (c : config) (n : bytes) : bool :=
  fam_q c (fsfx (c_spec c)) n || fam_q c (Some gz_sfx) n
  || match strip_suffix dot_gz n with Some m => fam_q c (fsfx (c_spec c)) m | None => false end.

(* Timestamps naming: the current file is a member, too *)
Definition ts_member (c : config) (n : bytes) : bool := tsd_member c n || beq n (cname c).

Lemma fam_q_qf c o n off :
  fam_q c o n = qf off (fsfx (c_spec c)) (fixed0 c) (IFTs std_fmt) o n.
Proof. unfold fam_q, qf, ts_like. destruct (infix_candidate (fsfx (c_spec c)) o (fixed0 c) n); reflexivity. Qed.

Lemma ts_like_nonempty i : ts_like i = true -> i <> [].
Proof. intros H ->. vm_compute in H. discriminate. Qed.

(* the archive name of a plain member is listed among the archives, unless the suffix of the family is "gz" *)
Lemma fam_q_gz_name c n : fsfx (c_spec c) <> Some gz_sfx ->
  fam_q c (fsfx (c_spec c)) n = true -> fam_q c (Some gz_sfx) (n ++ dot_gz) = true.
Proof.
  intros Hs H. rewrite (fam_q_qf c _ _ 0%Z) in H. rewrite (fam_q_qf c _ _ 0%Z). rewrite <- gz_name_app.
  apply qf_plain_gz_name; assumption.
Qed.

Lemma tsd_member_simple c n : fsfx (c_spec c) <> Some gz_sfx ->
  tsd_member c n = fam_q c (fsfx (c_spec c)) n || fam_q c (Some gz_sfx) n.
Proof.
  intros Hs. unfold tsd_member. destruct (strip_suffix dot_gz n) as [m|] eqn:E; [|apply orb_false_r].
  apply strip_suffix_spec in E. subst n. destruct (fam_q c (fsfx (c_spec c)) m) eqn:Q; [|apply orb_false_r].
  rewrite (fam_q_gz_name c m Hs Q). rewrite !orb_true_r. reflexivity.
Qed.

(* the infix of an instant of the years 1970..9999 *)
Lemma tsx_like e t : in_years e t -> ts_like (tsx e t) = true.
Proof. intros H. unfold ts_like. cbn [filter_infix]. rewrite (canonical_tsx e t H). reflexivity. Qed.

Lemma restart_tag_word : restart_tag = dot :: restart_word.
Proof. reflexivity. Qed.

Lemma restart_part_digits k : restart_part (restart_tag ++ pad_left 4 48%N (dec k)).
Proof.
  right. exists (restart_digits k). split; [reflexivity|]. split; [apply restart_digits_length | apply restart_digits_all].
Qed.

(* what collision_free_infix answers: the infix, possibly with a restart counter *)
Lemma collision_free_infix_shape off sp fixed f infix i :
  collision_free_infix off sp fixed f infix = Some (Some i) -> exists rs, restart_part rs /\ i = infix ++ rs.
Proof.
  unfold collision_free_infix. rewrite !filter_files_total. cbv zeta.
  match goal with |- (if ?B then _ else _) = _ -> _ => destruct B end.
  - match goal with |- match ?M with _ => _ end = _ -> _ => destruct M as [k|] end.
    + destruct (k <? usize_max)%N; [|discriminate]. intros H. injection H as <-. eexists. split; [apply restart_part_digits | reflexivity].
    + intros H. injection H as <-. eexists. split; [apply restart_part_digits | reflexivity].
  - intros H. injection H as <-. exists []. split; [left; reflexivity | rewrite app_nil_r; reflexivity].
Qed.

Lemma collision_free_shape c w infix i w' :
  collision_free c w infix = (Ok i, w') -> exists rs, restart_part rs /\ i = infix ++ rs.
Proof.
  unfold collision_free. destruct (tick w) as [fl1 w1]. destruct fl1; [discriminate|].
  destruct (tick w1) as [fl2 w2]. destruct fl2; [discriminate|].
  destruct (collision_free_infix (woff w2) (c_spec c) (fixed_of c w2) (wfs w2) infix) as [[j|]|] eqn:E; try discriminate.
  intros H. injection H as <- _. eapply collision_free_infix_shape. exact E.
Qed.

(* the predecessor that a writer with append looks for *)
Lemma newest_of_next_shape infix next newest :
  newest_of_next infix next = Some newest -> exists rs, restart_part rs /\ newest = infix ++ rs.
Proof.
  unfold newest_of_next. destruct (strip_prefix (infix ++ restart_tag) next) as [digits|]; [|discriminate].
  destruct (parse_uint usize_max digits) as [k|]; [|discriminate]. destruct k as [|p].
  - intros H. injection H as <-. exists []. split; [left; reflexivity | rewrite app_nil_r; reflexivity].
  - intros H. injection H as <-. eexists. split; [apply restart_part_digits | reflexivity].
Qed.

Section TsF.
Variable fn : list (bytes * nat).
Variable fi : list file.
Variable c : config.
Hypothesis Hts : fts (c_spec c) = false.
Hypothesis Hforeign : forall n, In n (fnames fn) -> tsd_member c n = false.
Notation fnm := (fnames fn).
Notation embw := (embedw fn fi).
Notation emb := (embed fn fi).

Lemma foreign_q n : In n fnm ->
  fam_q c (fsfx (c_spec c)) n = false /\ fam_q c (Some gz_sfx) n = false
  /\ match strip_suffix dot_gz n with Some m => fam_q c (fsfx (c_spec c)) m | None => false end = false.
Proof. intros H. apply Hforeign in H. unfold tsd_member in H. rewrite !orb_false_iff in H. tauto. Qed.

(* a listing "the infix is T" rejects the foreign names *)
Lemma foreign_eq off infix o n : ts_like infix = true -> (o = fsfx (c_spec c) \/ o = Some gz_sfx) -> In n fnm ->
  qf off (fsfx (c_spec c)) (fixed0 c) (IFEq infix) o n = false.
Proof.
  intros Hl Ho Hn. destruct (foreign_q n Hn) as [Q1 [Q2 _]].
  assert (Q : fam_q c o n = false) by (destruct Ho as [->| ->]; assumption).
  unfold qf. unfold fam_q in Q. destruct (infix_candidate (fsfx (c_spec c)) o (fixed0 c) n) as [i|]; [|reflexivity].
  cbn [filter_infix]. destruct (beq_spec i infix) as [->|_]; [congruence | reflexivity].
Qed.

(* the time-stamp listing (latest_timestamp_file) rejects them *)
Lemma foreign_tsl off n : In n fnm -> qf off (fsfx (c_spec c)) (fixed0 c) (IFTs std_fmt) (fsfx (c_spec c)) n = false.
Proof.
  intros Hn. destruct (foreign_q n Hn) as [Q1 _]. rewrite (fam_q_qf c _ _ off) in Q1. exact Q1.
Qed.

(* the names that the writer builds from a time stamp are members *)
Lemma built_name_member infix rs : ts_like infix = true -> no_dot infix -> restart_part rs ->
  fam_q c (fsfx (c_spec c)) (nm c (infix ++ rs)) = true.
Proof.
  intros Hl Hd Hr. unfold fam_q. pose proof (ts_like_nonempty infix Hl) as Hne.
  rewrite (family_is_candidate (c_spec c) (fixed0 c) (nm c (infix ++ rs)) infix); [exact Hl|].
  apply family_plain_alt. exists rs. split; [exact Hr|]. split; [exact Hne|]. split; [exact Hd|].
  unfold nm. rewrite as_name_some by (intros E; apply app_eq_nil in E; destruct E as [E _]; exact (Hne E)).
  rewrite with_suffix_sfxs, <- !app_assoc. reflexivity.
Qed.

Lemma built_name_own infix rs : ts_like infix = true -> no_dot infix -> restart_part rs -> ~ In (nm c (infix ++ rs)) fnm.
Proof.
  intros Hl Hd Hr Hn. destruct (foreign_q _ Hn) as [Q _]. rewrite (built_name_member infix rs Hl Hd Hr) in Q. discriminate.
Qed.

Lemma built_name_gz_own infix rs : ts_like infix = true -> no_dot infix -> restart_part rs ->
  ~ In (nm c (infix ++ rs) ++ dot :: gz_sfx) fnm.
Proof.
  intros Hl Hd Hr Hn. destruct (foreign_q _ Hn) as [_ [_ Q]]. fold dot_gz in Q. rewrite strip_suffix_app in Q.
  rewrite (built_name_member infix rs Hl Hd Hr) in Q. discriminate.
Qed.

Lemma name_of_nm w i : name_of c w (Some i) = nm c i.
Proof. rewrite name_of_fixed by exact Hts. reflexivity. Qed.

(* the names of the files of a run: the time stamp of an instant, possibly with a counter *)
Lemma kname_own e k : in_years e (fst k) -> ~ In (kname c e k) fnm.
Proof.
  intros Y. unfold kname. rewrite infix_of_tail.
  apply built_name_own; [apply tsx_like; exact Y | exact (tsx_no_dot e _ Y) | apply ktail_restart_part].
Qed.

(* ------------------------------------------------------------------ collision_free_infix *)
Lemma collision_free_infix_embed off f infix : ts_like infix = true -> no_dot infix ->
  collision_free_infix off (c_spec c) (fixed0 c) (emb f) infix = collision_free_infix off (c_spec c) (fixed0 c) f infix.
Proof.
  intros Hl Hd. unfold collision_free_infix.
  rewrite !(filter_files_embed fn fi) by (intros n Hn; apply foreign_eq; auto).
  destruct (filter_files off (fsfx (c_spec c)) (fixed0 c) (related_files f (fsfx (c_spec c)) (fixed0 c)) (IFEq infix) (fsfx (c_spec c))) as [unc|]; [|reflexivity].
  destruct (filter_files off (fsfx (c_spec c)) (fixed0 c) (related_files f (fsfx (c_spec c)) (fixed0 c)) (IFEq infix) (Some gz_sfx)) as [cmp|]; [|reflexivity].
  cbv zeta.
  assert (O1 : ~ In (as_name (c_spec c) (fixed0 c) (Some infix)) fnm).
  { pose proof (built_name_own infix [] Hl Hd (or_introl eq_refl)) as X. rewrite app_nil_r in X. exact X. }
  assert (O2 : ~ In (as_name (c_spec c) (fixed0 c) (Some infix) ++ dot :: gz_sfx) fnm).
  { pose proof (built_name_gz_own infix [] Hl Hd (or_introl eq_refl)) as X. rewrite app_nil_r in X. exact X. }
  rewrite (lookup_is_some_embed fn fi f _ O1), (lookup_is_some_embed fn fi f _ O2). reflexivity.
Qed.

Lemma fixed_of_0 w : fixed_of c w = fixed0 c.
Proof. apply fixed_of_fixed0. exact Hts. Qed.

Lemma collision_free_embed w infix : ts_like infix = true -> no_dot infix ->
  collision_free c (embw w) infix = lw fn fi (collision_free c w infix).
Proof.
  intros Hl Hd. unfold collision_free. rewrite tick_embed. destruct (tick w) as [fl1 w1]. cbn [lw fst snd].
  destruct fl1; [reflexivity|]. rewrite tick_embed. destruct (tick w1) as [fl2 w2]. cbn [lw fst snd].
  destruct fl2; [reflexivity|]. rewrite !fixed_of_0. change (wfs (embw w2)) with (emb (wfs w2)). change (woff (embw w2)) with (woff w2).
  rewrite collision_free_infix_embed by assumption.
  destruct (collision_free_infix (woff w2) (c_spec c) (fixed0 c) (wfs w2) infix) as [[i|]|]; reflexivity.
Qed.

(* the name that is opened or that the current file is renamed to *)
Lemma collision_free_name_own w infix i w' : ts_like infix = true -> no_dot infix ->
  collision_free c w infix = (Ok i, w') -> forall w'', ~ In (name_of c w'' (Some i)) fnm.
Proof.
  intros Hl Hd E w''. destruct (collision_free_shape c w infix i w' E) as [rs [Hr ->]]. rewrite name_of_nm.
  apply built_name_own; assumption.
Qed.

(* the predecessor that a writer with append continues *)
Lemma newest_name_own infix next newest : ts_like infix = true -> no_dot infix ->
  newest_of_next infix next = Some newest -> forall w, ~ In (name_of c w (Some newest)) fnm.
Proof.
  intros Hl Hd En w. destruct (newest_of_next_shape _ _ _ En) as [rs [Hr ->]]. rewrite name_of_nm.
  apply built_name_own; assumption.
Qed.

(* the time stamp in the file names *)
Lemma infix_from_ts_embed w t : infix_from_ts c (embw w) std_fmt t = infix_from_ts c w std_fmt t.
Proof. reflexivity. Qed.

Lemma infix_ok w t : in_years (eoff c w) t ->
  ts_like (infix_from_ts c w std_fmt t) = true /\ no_dot (infix_from_ts c w std_fmt t).
Proof. intros Y. rewrite infix_from_ts_tsx. split; [apply tsx_like; exact Y | exact (tsx_no_dot _ _ Y)]. Qed.

(* ------------------------------------------------------------------ latest_timestamp_file *)
Lemma latest_timestamp_file_embed w rot :
  latest_timestamp_file c (embw w) rot std_fmt = lw fn fi (latest_timestamp_file c w rot std_fmt).
Proof.
  unfold latest_timestamp_file. destruct rot; [reflexivity|].
  apply with_listing_embed. intros w'. rewrite !fixed_of_0.
  change (wfs (embw w')) with (emb (wfs w')). change (woff (embw w')) with (woff w'). change (wnow (embw w')) with (wnow w').
  rewrite (filter_files_embed fn fi) by (intros n Hn; apply foreign_tsl; exact Hn).
  destruct (filter_files (woff w') (fsfx (c_spec c)) (fixed0 c) (related_files (wfs w') (fsfx (c_spec c)) (fixed0 c)) (IFTs std_fmt) (fsfx (c_spec c))) as [files|]; [|reflexivity].
  destruct (map_opt (ts_infix_from_name (c_spec c) (fixed0 c)) files) as [infixes|]; [|reflexivity].
  reflexivity.
Qed.

(* ------------------------------------------------------------------ the cleanup of the time-stamp namings *)
Lemma cleanup_impl_embed_ts w kc cur : kc = KNever \/ fsfx (c_spec c) <> Some gz_sfx ->
  cleanup_impl c (embw w) kc (IFTs std_fmt) cur = lw fn fi (cleanup_impl c w kc (IFTs std_fmt) cur).
Proof.
  apply (cleanup_impl_embed_flt fn fi c (IFTs std_fmt) Hts).
  - intros off n Hn. destruct (foreign_q n Hn) as [Q _]. rewrite (fam_q_qf c _ _ off) in Q. exact Q.
  - intros off n Hn. destruct (foreign_q n Hn) as [_ [Q _]]. rewrite (fam_q_qf c _ _ off) in Q. exact Q.
Qed.

End TsF.

(* the names of the run - of a file and of its archive - are members of the family *)
Lemma memberd_kname c e k : in_years e (fst k) -> tsd_member c (kname c e k) = true.
Proof.
  intros Y. unfold tsd_member, kname. rewrite infix_of_tail.
  rewrite (built_name_member c); [reflexivity | apply tsx_like; exact Y | exact (tsx_no_dot _ _ Y) | apply ktail_restart_part].
Qed.

Lemma memberd_gkname c e k : in_years e (fst k) -> tsd_member c (gz_name (kname c e k)) = true.
Proof.
  intros Y. unfold tsd_member, kname. rewrite infix_of_tail, gz_name_app, strip_suffix_app.
  rewrite (built_name_member c); [apply orb_true_r | apply tsx_like; exact Y | exact (tsx_no_dot _ _ Y) | apply ktail_restart_part].
Qed.

(* ------------------------------------------------------------------ the clock along a history *)
Lemma elapsed_firstn_le ops : Forall tick_ok ops -> forall i, (0 <= elapsed (firstn i ops) <= elapsed ops)%Z.
Proof.
  induction 1 as [|o r Ho Hr IH]; intros i; destruct i; cbn [firstn elapsed]; try lia.
  - pose proof (elapsed_nonneg r Hr). assert (0 <= dt_of o)%Z by (destruct o; cbn [dt_of tick_ok] in *; lia). lia.
  - specialize (IH i). assert (0 <= dt_of o)%Z by (destruct o; cbn [dt_of tick_ok] in *; lia). lia.
Qed.

Lemma firstn_length_le {A} (l : list A) i : length (firstn i l) <= length l.
Proof. rewrite firstn_length. lia. Qed.

Lemma eoff_same_env c w w' : same_env w w' -> eoff c w' = eoff c w.
Proof. intros [_ [_ [H _]]]. unfold eoff. rewrite H. reflexivity. Qed.

(* ------------------------------------------------------------------ which names are foreign *)
(* the time-stamp filter wants an "r" in front *)
Lemma ts_like_head i : ts_like i = true -> exists r, i = r_char :: r.
Proof.
  unfold ts_like. intros H.
  cbn [filter_infix] in H. unfold canonical_ts in H.
  destruct (parse_ts_local std_fmt i) as [l|] eqn:P; [|discriminate]. clear H. rename P into H.
  unfold parse_ts_local, std_fmt in H. cbn [parse_items parse_item] in H.
  destruct i as [|a r]; [discriminate|]. destruct (N.eqb_spec a 114%N) as [->|_]; [|discriminate]. exists r. reflexivity.
Qed.

Lemma fam_q_shape c o n : fam_q c o n = true -> exists y, n = under (fixed0 c) ++ r_char :: y.
Proof.
  unfold fam_q. destruct (infix_candidate (fsfx (c_spec c)) o (fixed0 c) n) as [i|] eqn:E; [|discriminate].
  intros H. apply ts_like_head in H. destruct H as [r ->]. apply infix_candidate_prefix in E. destruct E as [y ->].
  exists (r ++ y). reflexivity.
Qed.

(* a member has the shape  <fixed>_ r ... : every name of another shape is foreign, in particular every name that does
   not start with the fixed name part *)
Theorem tsd_member_shape c n : tsd_member c n = true -> exists y, n = under (fixed0 c) ++ r_char :: y.
Proof.
  unfold tsd_member. intros H. apply orb_true_iff in H. destruct H as [H|H].
  - apply orb_true_iff in H. destruct H as [H|H]; eapply fam_q_shape; exact H.
  - destruct (strip_suffix dot_gz n) as [m|] eqn:E; [|discriminate]. apply strip_suffix_spec in E. subst n.
    apply fam_q_shape in H. destruct H as [y ->]. exists (y ++ dot_gz). rewrite <- app_assoc. reflexivity.
Qed.

Corollary foreign_no_prefix_ts c n : is_prefix (fixed0 c) n = false -> tsd_member c n = false.
Proof.
  intros Hp. destruct (tsd_member c n) eqn:E; [|reflexivity]. exfalso.
  apply tsd_member_shape in E. destruct E as [y ->]. rewrite is_prefix_under in Hp. discriminate.
Qed.

Theorem ts_member_shape c n : ts_member c n = true -> exists y, n = under (fixed0 c) ++ r_char :: y.
Proof.
  unfold ts_member. intros H. apply orb_true_iff in H. destruct H as [H|H]; [apply tsd_member_shape; exact H|].
  apply beq_eq in H. subst n. rewrite cname_shape. eexists. reflexivity.
Qed.

(* the test on a name of the documented shape  <fixed>_<infix>[.restart-NNNN].<suffix>  (infix without a dot): it is the
   test of the time-stamp filter on the infix - a_rXYZ.log, a_r1x.log and a_r00001.log are foreign, a_r2024-05-06_07-08-09.log is
   not *)
Theorem fam_q_built_name c infix rs : infix <> [] -> no_dot infix -> restart_part rs ->
  fam_q c (fsfx (c_spec c)) (nm c (infix ++ rs)) = ts_like infix.
Proof.
  intros Hne Hd Hr. unfold fam_q.
  rewrite (family_is_candidate (c_spec c) (fixed0 c) (nm c (infix ++ rs)) infix); [reflexivity|].
  apply family_plain_alt. exists rs. split; [exact Hr|]. split; [exact Hne|]. split; [exact Hd|].
  unfold nm. rewrite as_name_some by (intros E; apply app_eq_nil in E; destruct E as [E _]; exact (Hne E)).
  rewrite with_suffix_sfxs, <- !app_assoc. reflexivity.
Qed.
