(* Numbers naming with a cleanup strategy, sequences of runs (C06 with cleanup): examples.  Concrete histories meet the
   hypotheses of the theorems (they are not vacuous) and the final directories are computed (vm_compute); findings. *)
Require Import FL.Base.Bytes FL.Fs.Fs FL.Names.FileSpec FL.Flw.Model FL.Flw.NumInv FL.Flw.Run FL.Flw.NumRun
  FL.Flw.NumRestart FL.Flw.NumCleanupNames FL.Flw.NumCleanupRun FL.Flw.NumCleanupKillDir
  FL.Flw.NumCleanupRestartTheorems FL.Flw.NumCleanupRestartVar FL.Flw.NumCleanupRestartVarTheorems.
From Coq Require Import Lia.
Import String.StringSyntax.
Open Scope nat_scope.
Open Scope string_scope.

Definition xsp : file_spec := {| fbase := bs "a"; fdisc := None; fts := false; fsfx := Some (bs "log") |}.
Definition xc (app : bool) (crit : criterion) (cap : option nat) (k : cleanup) : config :=
  {| c_spec := xsp; c_append := app; c_cap := cap; c_rot := Some (crit, NNumbers, k); c_utc := false;
     c_symlink := false; c_bg := false; c_async := false; c_start := None |}.
Definition W (s : String.string) := OWrite (bs s).
Notation fsof rs := (wfs (s_w (fst (run (sys0 0 0) (runs_ops rs))))).
Definition dirof (rs : list (config * list op)) := snap_of (fst (run (sys0 0 0) (runs_ops rs))).

Lemma xsp_sfx : sfx_ok xsp.
Proof. vm_compute. reflexivity. Qed.

(* ------------------------------------------------------------------ one strategy for all runs: KLogGz 1 1 *)
(* run 1 (no append, rotation at more than 3 bytes): closes abcd, efgh; run 2 (append, buffered) continues rCURRENT;
   run 3 writes nothing; run 4 (no append, other criterion) closes rCURRENT at once and writes op *)
Definition k11 : cleanup := KLogGz 1 1.
Definition r1 (k : cleanup) : config * list op := (xc false (CSize 3) None k, [W "abcd"; W "efgh"; W "ijkl"]).
Definition ex_rs1 : list (config * list op) := [ r1 k11 ].
Definition ex_rs2 : list (config * list op) :=
  [ (xc true (CSize 100) (Some 8) k11, [W "m"; OFlush; W "n"]);
    (xc false (CAge ADay) None k11, [OTick 5; OFlush; OTrigger; OSnap]);
    (xc false (CAgeOrSize AHour 100) (Some 2) k11, [OPlain (bs "op")]) ].
Definition ex_rs : list (config * list op) := ex_rs1 ++ ex_rs2.

Lemma ex_rs_ok : Forall (fun r => c_spec (fst r) = xsp /\ (exists crit, numkcfg (fst r) crit k11) /\ Forall basic_op (snd r)) ex_rs.
Proof.
  unfold ex_rs, ex_rs1, ex_rs2. cbn [app].
  repeat (apply Forall_cons; [split; [reflexivity|]; split; [eexists; repeat split|]; repeat constructor|]).
  apply Forall_nil.
Qed.

(* the first run alone; it opens several of the sequences below *)
Lemma dirof_r1 :
  dirof [r1 k11]
  = [ (bs "a_r00000.log.gz", 1%N, bs "abcd"); (bs "a_r00001.log", 0%N, bs "efgh"); (bs "a_rCURRENT.log", 0%N, bs "ijkl") ].
Proof. vm_compute. reflexivity. Qed.
Lemma reads_r1 : reads_at (xc false (CSize 3) None k11) (fsof [r1 k11]) 1 (bs "efgh").
Proof. vm_compute. repeat split; reflexivity. Qed.

Example restarts_k_dirs :
  dirof ex_rs1
  = [ (bs "a_r00000.log.gz", 1%N, bs "abcd"); (bs "a_r00001.log", 0%N, bs "efgh"); (bs "a_rCURRENT.log", 0%N, bs "ijkl") ]
  /\ dirof (ex_rs1 ++ firstn 1 ex_rs2)
  = [ (bs "a_r00000.log.gz", 1%N, bs "abcd"); (bs "a_r00001.log", 0%N, bs "efgh"); (bs "a_rCURRENT.log", 0%N, bs "ijklmn") ]
  (* a run without a write: no rotation (even with OTrigger), no cleanup *)
  /\ dirof (ex_rs1 ++ firstn 2 ex_rs2) = dirof (ex_rs1 ++ firstn 1 ex_rs2)
  (* no append: rCURRENT is closed under the next number with the FIRST WRITE and the cleanup runs at once *)
  /\ dirof ex_rs
  = [ (bs "a_r00001.log.gz", 1%N, bs "efgh"); (bs "a_r00002.log", 0%N, bs "ijklmn"); (bs "a_rCURRENT.log", 0%N, bs "op") ].
Proof. split; [exact dirof_r1|]. vm_compute. repeat split; reflexivity. Qed.

Example restarts_k_instance :
  exists closed cur,
    (forall c, c_spec c = xsp -> kreader_view c (fsof ex_rs) closed cur (length closed - (1 + 1)) (length closed - 1))
    /\ concat closed ++ cur = bs "abcdefghijklmnop".
Proof.
  destruct (numbers_cleanup_restarts xsp k11 1 1 0 0 ex_rs eq_refl xsp_sfx ltac:(vm_compute; discriminate) ex_rs_ok) as [[Hn _]|T].
  - vm_compute in Hn. discriminate Hn.
  - exact T.
Qed.

Example restarts_k_keep_instance :
  let c := xc false (CSize 3) None k11 in
  reads_at c (fsof ex_rs1) 1 (bs "efgh")
  /\ lookup (fsof ex_rs1) (rname c 1) <> None
  /\ reads_at c (fsof (ex_rs1 ++ ex_rs2)) 1 (bs "efgh")
  /\ lookup (fsof (ex_rs1 ++ ex_rs2)) (rname c 1) = None.
Proof.
  intros c.
  assert (R1 : reads_at c (fsof ex_rs1) 1 (bs "efgh")) by exact reads_r1.
  split; [exact R1|]. split; [vm_compute; discriminate|].
  pose proof (numbers_cleanup_restarts_keep_files xsp k11 1 1 0 0 ex_rs1 ex_rs2 c 1 (bs "efgh")
                eq_refl xsp_sfx ltac:(vm_compute; discriminate) ex_rs_ok eq_refl) as T.
  cbv zeta in T. destruct (T R1) as [[R2 _]|[G1 G2]].
  - split; [exact R2 | vm_compute; reflexivity].
  - vm_compute in G2. discriminate G2.
Qed.

(* ------------------------------------------------------------------ findings *)
(* 1. A run WITHOUT APPEND that finds rCURRENT closes it with its first write and runs the cleanup before the record is
      written: r00000.log.gz disappears although the new run itself has not rotated (limit 100 bytes). *)
Example restart_without_append_cleans_at_once :
  dirof [r1 k11]
  = [ (bs "a_r00000.log.gz", 1%N, bs "abcd"); (bs "a_r00001.log", 0%N, bs "efgh"); (bs "a_rCURRENT.log", 0%N, bs "ijkl") ]
  /\ dirof [r1 k11; (xc false (CSize 100) None k11, [W "m"])]
  = [ (bs "a_r00001.log.gz", 1%N, bs "efgh"); (bs "a_r00002.log", 0%N, bs "ijkl"); (bs "a_rCURRENT.log", 0%N, bs "m") ]
  (* with append nothing is closed and the cleanup finds nothing to do *)
  /\ dirof [r1 k11; (xc true (CSize 100) None k11, [W "m"])]
  = [ (bs "a_r00000.log.gz", 1%N, bs "abcd"); (bs "a_r00001.log", 0%N, bs "efgh"); (bs "a_rCURRENT.log", 0%N, bs "ijklm") ].
Proof. split; [exact dirof_r1|]. vm_compute. repeat split; reflexivity. Qed.

(* 2. Both limits 0: no closed file is ever left, so every new writer finds no number in the directory and starts again at
      r00000.  With one strategy for all runs this is invisible (the theorems hold: no closed file survives) ... *)
Definition k00 : cleanup := KLogGz 0 0.
Example index_restarts_at_0 :
  dirof [r1 k00] = [ (bs "a_rCURRENT.log", 0%N, bs "ijkl") ]
  /\ dirof [r1 k00; (xc false (CSize 3) None k00, [W "mnop"; W "qrst"])] = [ (bs "a_rCURRENT.log", 0%N, bs "qrst") ]
  (* ... but a following run with another strategy shows it: ijkl is closed as r00000, the number under which the first run closed abcd *)
  /\ dirof [r1 k00; (xc false (CSize 3) None KNever, [W "mnop"; W "qrst"])]
  = [ (bs "a_r00000.log", 0%N, bs "ijkl"); (bs "a_r00001.log", 0%N, bs "mnop"); (bs "a_rCURRENT.log", 0%N, bs "qrst") ].
Proof. vm_compute. repeat split; reflexivity. Qed.

(* 3. COUNTEREXAMPLE to "a later run never changes the content found under a number" when the strategies vary and one of
      them keeps nothing: run 1 (KNever) leaves r00000 = abcd; run 2 (limits 0 0) removes everything; run 3 (KNever) finds no
      number and closes mnop as r00000.  Nothing that survived was modified - every file was removed by the configured cleanup
      before its name was used again - but a reader that compares the two directories finds other records under the same name.
      Hence the hypothesis 1 <= A (every strategy keeps at least one closed file) of numbers_cleanup_restarts_varying_keep_files. *)
Definition cx_rs1 : list (config * list op) := [r1 KNever].
Definition cx_rs2 : list (config * list op) :=
  [ (xc false (CSize 100) None k00, [W "mnop"]); (xc false (CSize 100) None KNever, [W "qrst"]) ].
Example reused_number_counterexample :
  let c := xc false (CSize 3) None KNever in
  dirof cx_rs1 = [ (bs "a_r00000.log", 0%N, bs "abcd"); (bs "a_r00001.log", 0%N, bs "efgh"); (bs "a_rCURRENT.log", 0%N, bs "ijkl") ]
  /\ dirof (cx_rs1 ++ cx_rs2) = [ (bs "a_r00000.log", 0%N, bs "mnop"); (bs "a_rCURRENT.log", 0%N, bs "qrst") ]
  /\ reads_at c (fsof cx_rs1) 0 (bs "abcd")
  /\ reads_at c (fsof (cx_rs1 ++ cx_rs2)) 0 (bs "mnop")
  /\ ~ reads_at c (fsof (cx_rs1 ++ cx_rs2)) 0 (bs "abcd")
  /\ lookup (fsof (cx_rs1 ++ cx_rs2)) (rname c 0) <> None.
Proof.
  intros c. split; [vm_compute; reflexivity|]. split; [vm_compute; reflexivity|].
  assert (R2 : reads_at c (fsof (cx_rs1 ++ cx_rs2)) 0 (bs "mnop")) by (vm_compute; repeat split; reflexivity).
  split; [vm_compute; repeat split; reflexivity|]. split; [exact R2|]. split; [|vm_compute; discriminate].
  intros R. pose proof (reads_at_fun c _ 0 _ _ R R2) as E. vm_compute in E. discriminate E.
Qed.

(* 4. Strategies that vary: larger limits do not bring anything back, the window only moves forward; a file that is an
      archive stays an archive even when it is among the newest n (KGz 5, then KLogGz 2 1: three archives although m = 1,
      no plain file although n = 2 - the total n + m = 3 is respected). *)
Definition six : list op := [W "aaaa"; W "bbbb"; W "cccc"; W "dddd"; W "eeee"; W "ffff"].
Example varying_strategies :
  dirof [r1 k11; (xc false (CSize 3) None (KLogGz 2 2), [W "mnop"; W "qrst"; W "uvwx"])]
  = [ (bs "a_r00001.log.gz", 1%N, bs "efgh"); (bs "a_r00002.log.gz", 1%N, bs "ijkl"); (bs "a_r00003.log", 0%N, bs "mnop");
      (bs "a_r00004.log", 0%N, bs "qrst"); (bs "a_rCURRENT.log", 0%N, bs "uvwx") ]
  /\ dirof [(xc false (CSize 3) None (KGz 5), six)]
  = [ (bs "a_r00000.log.gz", 1%N, bs "aaaa"); (bs "a_r00001.log.gz", 1%N, bs "bbbb"); (bs "a_r00002.log.gz", 1%N, bs "cccc");
      (bs "a_r00003.log.gz", 1%N, bs "dddd"); (bs "a_r00004.log.gz", 1%N, bs "eeee"); (bs "a_rCURRENT.log", 0%N, bs "ffff") ]
  /\ dirof [(xc false (CSize 3) None (KGz 5), six); (xc true (CSize 100) None (KLogGz 2 1), [W "g"])]
  = [ (bs "a_r00002.log.gz", 1%N, bs "cccc"); (bs "a_r00003.log.gz", 1%N, bs "dddd"); (bs "a_r00004.log.gz", 1%N, bs "eeee");
      (bs "a_rCURRENT.log", 0%N, bs "ffffg") ].
Proof. vm_compute. repeat split; reflexivity. Qed.

(* ------------------------------------------------------------------ every run with its own strategy: the hypotheses can be met *)
Definition ex_vs1 : list (config * list op) := [ r1 k11 ].
Definition ex_vs2 : list (config * list op) := [ (xc true (CSize 100) (Some 8) KNever, [W "m"; OTrigger; W "n"]) ].
Definition ex_vs3 : list (config * list op) :=
  [ (xc false (CAge ADay) None (KLog 5), [OTick 5; OSnap]);
    (xc false (CSize 3) None (KLogGz 2 0), [OPlain (bs "opqr"); W "stuv"]) ].
Definition ex_vs : list (config * list op) := (ex_vs1 ++ ex_vs2) ++ ex_vs3.

Lemma ex_vs_ok :
  Forall (fun r => c_spec (fst r) = xsp /\ (exists crit k, numkcfg (fst r) crit k /\ kok 2 1 k) /\ Forall basic_op (snd r)) ex_vs.
Proof.
  unfold ex_vs, ex_vs1, ex_vs2, ex_vs3. cbn [app].
  repeat (apply Forall_cons; [split; [reflexivity|]; split; [do 2 eexists; split; [repeat split | cbn; try lia; exact I]|]; repeat constructor|]).
  apply Forall_nil.
Qed.

Example varying_dirs :
  dirof (ex_vs1 ++ ex_vs2)
  = [ (bs "a_r00000.log.gz", 1%N, bs "abcd"); (bs "a_r00001.log", 0%N, bs "efgh"); (bs "a_r00002.log", 0%N, bs "ijklm");
      (bs "a_rCURRENT.log", 0%N, bs "n") ]
  /\ dirof ex_vs
  = [ (bs "a_r00003.log", 0%N, bs "n"); (bs "a_r00004.log", 0%N, bs "opqr"); (bs "a_rCURRENT.log", 0%N, bs "stuv") ].
Proof. vm_compute. repeat split; reflexivity. Qed.

Example varying_instance :
  exists closed cur lo mid,
    (forall c, c_spec c = xsp -> kreader_view c (fsof ex_vs) closed cur lo mid)
    /\ concat closed ++ cur = bs "abcdefghijklmnopqrstuv"
    /\ Nat.min (length closed) 2 <= length closed - lo /\ Nat.min (length closed) 1 <= length closed - mid
    /\ length closed - mid <= 2 /\ length closed - lo <= 2 + 0.
Proof.
  destruct (numbers_cleanup_restarts_varying xsp 2 1 0 0 ex_vs ltac:(lia) xsp_sfx ltac:(vm_compute; discriminate) ex_vs_ok)
    as [[Hn _]|(closed & cur & lo & mid & V & F & X1 & X2 & U)].
  - vm_compute in Hn. discriminate Hn.
  - exists closed, cur, lo, mid. split; [exact V|]. split; [exact F|]. split; [exact X1|]. split; [exact X2|].
    apply (U ((ex_vs1 ++ ex_vs2) ++ firstn 1 ex_vs3) (xc false (CSize 3) None (KLogGz 2 0)) [OPlain (bs "opqr"); W "stuv"] (CSize 3) (KLogGz 2 0) 2 0);
      [reflexivity | reflexivity | repeat split | reflexivity].
Qed.

Example varying_keep_instance :
  let c := xc false (CSize 3) None k11 in
  reads_at c (fsof (ex_vs1 ++ ex_vs2)) 2 (bs "ijklm")
  /\ lookup (fsof ex_vs) (rname c 2) = None /\ lookup (fsof ex_vs) (gname c 2) = None
  /\ reads_at c (fsof ex_vs1) 1 (bs "efgh") /\ reads_at c (fsof (ex_vs1 ++ ex_vs2)) 1 (bs "efgh").
Proof.
  intros c.
  assert (R1 : reads_at c (fsof ex_vs1) 1 (bs "efgh")) by exact reads_r1.
  split; [vm_compute; repeat split; reflexivity|]. split; [vm_compute; reflexivity|]. split; [vm_compute; reflexivity|].
  split; [exact R1|].
  assert (Hok : Forall (fun r => c_spec (fst r) = xsp /\ (exists crit k, numkcfg (fst r) crit k /\ kok 2 1 k) /\ Forall basic_op (snd r))
                  (ex_vs1 ++ ex_vs2)).
  { pose proof ex_vs_ok as H. unfold ex_vs in H. apply Forall_app in H. exact (proj1 H). }
  pose proof (numbers_cleanup_restarts_varying_keep_files xsp 2 1 0 0 ex_vs1 ex_vs2 c 1 (bs "efgh")
                ltac:(lia) xsp_sfx ltac:(vm_compute; discriminate) Hok eq_refl) as T.
  cbv zeta in T. destruct (T R1) as [[R2 _]|[G1 _]].
  - exact R2.
  - vm_compute in G1. discriminate G1.
Qed.
