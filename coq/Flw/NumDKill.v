(* NumbersDirect naming, direct mode (no user-space buffer), a process that is killed at an arbitrary effect, and a new
   writer on the directory that the killed one left behind: no acknowledged record is lost, nothing else is in the files,
   the new writer starts cleanly and adds its own records.

   A rotation of NumbersDirect naming is ONE effect (the creation of the next file; nothing is renamed), so the states in
   which a kill can leave the directory are simpler than for Numbers naming (NumKill.v): the directory always consists of
   r00000 .. r(n) without a gap - the last file possibly the freshly created empty one, or the creation did not happen.
   The kill counter, `acked`, `with_w`, the dead process: NumKill.v / KillFacts.v. *)
Require Import FL.Base.Bytes FL.Base.BytesFacts FL.Base.PathName FL.Fs.Fs FL.Fs.FsFacts FL.Time.TsFormat
  FL.Names.FileSpec FL.Names.FamilyFacts FL.Flw.Model FL.Flw.ModelFacts FL.Flw.NumFs FL.Flw.NumInv
  FL.Flw.Run FL.Flw.NumRun FL.Flw.NumListing FL.Flw.NumTheorems FL.Flw.NumRestart
  FL.Flw.KillFacts FL.Flw.NumKill FL.Flw.NumKillRestart FL.Flw.NumDInv FL.Flw.NumDRun FL.Flw.NumDTheorems FL.Flw.NumDRestart.
From Coq Require Import ZifyN ZifyNat ZifyBool.
Import String.StringSyntax.
Open Scope nat_scope.

(* ------------------------------------------------------------------ the directory of a dead process *)
(* dir_view_d (NumDRestart.v): None - the directory is empty; Some (cl, cu) - it consists exactly of r00000 .. r(|cl|) *)
Definition DeadDirD (c : config) (w : world) (v : aview) : Prop := dead w /\ dir_view_d c (wfs w) v.

Lemma numdinv_dir c q wr cl : NumDInv c q wr cl -> wpend wr = [] -> dir_view_d c (wfs q) (Some (cl, cur_view q wr)).
Proof. intros I P. split; [apply I | apply numdinv_direct_view; assumption]. Qed.

(* the world of x is a quiet world q with the counter at S n (alive, n effects left) *)
Definition KRelD (c : config) (crit : criterion) (x : sys) (a : aview) : Prop :=
  exists q n, s_w x = kw q (S n) /\ RelD c crit (with_w x q) a.

Section DirectD.
Variables (c : config) (crit : criterion).
Hypothesis Hcfg : numdcfg c crit.
Hypothesis Hcap : c_cap c = None.

Lemma direct_wr_d q wr cl : NumDInv c q wr cl -> wpend wr = [] /\ wcap wr = None.
Proof.
  intros I. pose proof (nd_wr _ _ _ _ I) as Hw. pose proof (nd_cap _ _ _ _ I) as Hc. rewrite Hcap in Hc.
  unfold wr_ok in Hw. rewrite Hc in Hw. split; assumption.
Qed.

(* ---- one rotation with a budget: one effect, the creation of the next file ---- *)
Lemma mount_next_kd q wr cl roll force n :
  NumDInv c q wr cl -> force || rotation_necessary q roll = true ->
  match n with
  | 0 => exists r st',
      mount_next c (kw q 1) (Active (Some (mk_rs (NSNumD (N.of_nat (length cl))) roll)) wr (rname c (length cl))) force = (r, kw q 0, st')
  | S n' => exists q' wr' roll',
      mount_next c (kw q (S (S n'))) (Active (Some (mk_rs (NSNumD (N.of_nat (length cl))) roll)) wr (rname c (length cl))) force
      = (Ok tt, kw q' (S n'),
         Active (Some (mk_rs (NSNumD (N.of_nat (length (cl ++ [cur_view q wr])))) roll')) wr' (rname c (length (cl ++ [cur_view q wr]))))
      /\ NumDInv c q' wr' (cl ++ [cur_view q wr]) /\ cur_view q' wr' = [] /\ roll_size_ok roll' 0 /\ same_env q q'
      /\ (forall m cur, roll = RSize m cur -> exists cur', roll' = RSize m cur')
  end.
Proof.
  intros I Hnec. destruct Hcfg as [Hrot [Hts [Hlink _]]].
  destruct (direct_wr_d q wr cl I) as [Hp Hc0]. pose proof (nd_quiet _ _ _ _ I) as Q.
  destruct (rotate_numdinv c q wr cl (wnow q) I) as [Ht RI].
  assert (Elen : length (cl ++ [cur_view q wr]) = S (length cl)) by (rewrite app_length; apply Nat.add_1_r).
  rewrite <- rname_S in Ht.
  pose proof (fun j => mount_next_numd_kw c q (mk_rs (NSNumD (N.of_nat (length cl))) roll) wr (rname c (length cl)) force _ j
                         Hts Hlink Q Hp eq_refl Hnec Ht) as E.
  cbn [mk_rs rs_bg rs_cleanup rs_roll cleanup_or_queue cleanup_impl] in E. cbv zeta in E. rewrite rname_S in E.
  destruct n as [|n'].
  - (* killed at the creation of the next file *)
    rewrite E. cbn [eff_fs]. eauto.
  - (* the rotation is completed *)
    rewrite E. cbn [eff_fs].
    set (q2 := set_fs q (fst (create_file (wfs q) (rname c (S (length cl))) 0%N (wnow q)))).
    assert (F3 : wfs q2 = append_ino (fst (create_file (wfs q) (rname c (S (length cl))) 0%N (wnow q))) (wino wr) (wpend wr)).
    { rewrite Hp, append_ino_nil_id. reflexivity. }
    destruct (RI q2 Q F3) as [I2 [V2 _]].
    rewrite Elen.
    eexists q2, _, (reset_size_and_date q2 roll (rname c (S (length cl)))).
    split. { rewrite Nat2N.inj_succ, <- N.add_1_r. reflexivity. }
    split; [exact I2|]. split; [exact V2|].
    split. { destruct roll; cbn; auto. }
    split; [apply same_env_set_fs; exact Q|].
    intros m cur ->. cbn. eauto.
Qed.

(* ---- one write(2) of the unbuffered writer with a budget ---- *)
Lemma w_write_kd q wr cl b n :
  NumDInv c q wr cl ->
  exists w', w_write (kw q (S n)) wr b = (true, w', wr) /\
   ( (exists q' n', w' = kw q' (S n') /\ NumDInv c q' wr cl /\ cur_view q' wr = cur_view q wr ++ b /\ same_env q q')
     \/ w' = kw q 0 ).
Proof.
  intros I. destruct (direct_wr_d q wr cl I) as [Hp Hc0]. pose proof (nd_quiet _ _ _ _ I) as Q.
  apply (w_write_direct_kw (fun q' => NumDInv c q' wr cl) q wr b n Q Hp Hc0 I).
  intros x q' F S. exact (numdinv_append c q q' wr wr cl x I F S eq_refl eq_refl (nd_wr _ _ _ _ I)).
Qed.

(* ---- a write on an active writer with a budget: every kill point ---- *)
Lemma write_active_kd q wr cl roll b n :
  NumDInv c q wr cl -> roll_size_ok roll (length (cur_view q wr)) ->
  exists r w' s' rot', write_buffer (st_of_d c (length cl) roll wr) (kw q (S n)) b = (r, w', s', rot') /\
  ( (exists q' n' wr' roll' cl', w' = kw q' (S n') /\ r = Ok tt /\ s' = st_of_d c (length cl') roll' wr'
       /\ rot' = rotation_necessary q roll
       /\ NumDInv c q' wr' cl' /\ roll_size_ok roll' (length (cur_view q' wr')) /\ same_env q q'
       /\ (cl', cur_view q' wr') = (if rotation_necessary q roll then (cl ++ [cur_view q wr], b) else (cl, cur_view q wr ++ b))
       /\ (forall m cur, roll = RSize m cur -> exists cur', roll' = RSize m cur'))
    \/ (exists qd v, w' = kw qd 0 /\ quiet qd /\ dir_view_d c (wfs qd) v
          /\ flat v = concat cl ++ cur_view q wr /\ length (closed_of v) <= S (length cl)) ).
Proof.
  intros I Hsz. destruct (direct_wr_d q wr cl I) as [Hp Hc0]. pose proof (nd_quiet _ _ _ _ I) as Q.
  rewrite write_buffer_eq. unfold wb_active. cbn [st_of_d f_cfg f_inner mk_rs rs_roll]. rewrite rot_nec_kw.
  destruct (rotation_necessary q roll) eqn:Er.
  - (* the write rotates first *)
    pose proof (mount_next_kd q wr cl roll false n I) as M. cbn [orb] in M. specialize (M Er).
    destruct n as [|n'].
    + destruct M as [r1 [st1 E1]]. rewrite E1.
      destruct (wb_tail_dead (st_of_d c (length cl) roll wr) b r1 (kw q 0) st1 true (dead_kw q Q)) as [r [s' ET]].
      exists r, (kw q 0), s', true. split; [exact ET|]. right.
      exists q, (Some (cl, cur_view q wr)). split; [reflexivity|]. split; [exact Q|]. split; [exact (numdinv_dir c q wr cl I Hp)|].
      split; [reflexivity | cbn [closed_of]; lia].
    + destruct M as [q1 [wr1 [roll1 [E1 [I1 [V1 [Z1 [S1 R1]]]]]]]]. rewrite E1. unfold wb_tail.
      destruct (w_write_kd q1 wr1 (cl ++ [cur_view q wr]) b n' I1) as [w2 [Ew Out]]. rewrite Ew.
      eexists _, w2, _, true. split; [reflexivity|].
      destruct Out as [[q2 [n2 [-> [I2 [V2 S2]]]]] | ->].
      * left. exists q2, n2, wr1, (increase_size roll1 (N.of_nat (length b))), (cl ++ [cur_view q wr]).
        split; [reflexivity|]. split; [reflexivity|]. split; [reflexivity|]. split; [reflexivity|].
        split; [exact I2|]. rewrite V1 in V2. cbn [app] in V2.
        split. { rewrite V2. apply (roll_size_increase roll1 0 (length b)). exact Z1. }
        split; [eapply same_env_trans; eassumption|].
        split; [rewrite V2; reflexivity|].
        intros m cur Hr. destruct (R1 m cur Hr) as [cur' ->]. cbn. eauto.
      * right. destruct (direct_wr_d q1 wr1 _ I1) as [Hp1 _].
        exists q1, (Some (cl ++ [cur_view q wr], cur_view q1 wr1)).
        split; [reflexivity|]. split; [apply I1|]. split; [exact (numdinv_dir c q1 wr1 _ I1 Hp1)|].
        split.
        -- cbn [flat]. rewrite V1, concat_app. cbn [concat]. rewrite !app_nil_r. reflexivity.
        -- cbn [closed_of]. rewrite app_length. cbn [length]. lia.
  - (* no rotation *)
    rewrite mount_next_idle by (rewrite rot_nec_kw; exact Er). unfold wb_tail.
    destruct (w_write_kd q wr cl b n I) as [w2 [Ew Out]]. rewrite Ew.
    eexists _, w2, _, false. split; [reflexivity|].
    destruct Out as [[q2 [n2 [-> [I2 [V2 S2]]]]] | ->].
    + left. exists q2, n2, wr, (increase_size roll (N.of_nat (length b))), cl.
      split; [reflexivity|]. split; [reflexivity|]. split; [reflexivity|]. split; [reflexivity|].
      split; [exact I2|].
      split. { rewrite V2, app_length. apply roll_size_increase. exact Hsz. }
      split; [exact S2|]. split; [rewrite V2; reflexivity|].
      intros m cur ->. cbn. eauto.
    + right. exists q, (Some (cl, cur_view q wr)). split; [reflexivity|]. split; [exact Q|].
      split; [exact (numdinv_dir c q wr cl I Hp)|]. split; [reflexivity | cbn [closed_of]; lia].
Qed.

(* ---- the first write: initialisation in the empty directory with a budget ---- *)
Lemma initialize_empty_kd q n :
  quiet q -> names (wfs q) = [] -> inodes (wfs q) = [] ->
  match n with
  | 0 => exists r a, initialize c (kw q 1) = (r, set_acts (kw q 0) a)
  | S n' => exists q' wr roll,
      initialize c (kw q (S (S n'))) = (Ok (Active (Some (mk_rs (NSNumD 0) roll)) wr (rname c 0)), kw q' (S n'))
      /\ NumDInv c q' wr [] /\ cur_view q' wr = [] /\ roll_size_ok roll 0 /\ same_env q q'
      /\ (forall m, crit = CSize m -> roll = RSize m 0)
  end.
Proof.
  intros Q Hn Hi. destruct Hcfg as [Hrot [Hts [Hlink _]]].
  assert (Lc : lookup (wfs q) (name_of c q (Some (number_infix 0))) = None) by (apply lookup_empty; exact Hn).
  pose proof (fun k => open_log_file_fresh_kw c q k (Some (number_infix 0)) Q Hlink Lc) as Eo.
  rewrite (name_of_nm c q _ Hts), Hi in Eo. change (nm c (number_infix 0)) with (rname c 0) in Eo.
  destruct n as [|n'].
  - exact (initialize_dies c _ _ _ _ _ _ _ _ _ Hrot (init_naming_empty_d_kw c q 1 Q Hn) (Eo 1) (dead_kw q Q)).
  - specialize (Eo (S (S n'))). cbn [eff_fs length] in Eo.
    set (q2 := set_fs q (fst (create_file (wfs q) (rname c 0) 0%N (wnow q)))) in *.
    destruct (numdinv_first c q2 (wfs q) (wnow q) Q Hn Hi eq_refl) as [I2 [V2 Fo]].
    eexists q2, _, _. split; [|split; [exact I2|]; split; [exact V2|]].
    + apply (initialize_steps c _ _ _ _ _ _ _ _ _ _ _ _ _ Hrot (init_naming_empty_d_kw c q _ Q Hn) Eo
               (roll_new_kw q2 (S n') crit (c_append c) _ _ Q Fo) eq_refl).
    + cbn [fresh_file fdata fborn length]. split; [destruct (c_append c); apply (roll_of_size_ok crit 0)|].
      split; [apply same_env_set_fs; exact Q|]. intros m ->. destruct (c_append c); reflexivity.
Qed.

(* ---- a write, from either kind of state ---- *)
Lemma write_rel_kd x a b q n :
  s_w x = kw q (S n) -> RelD c crit (with_w x q) a ->
  exists s r w' s' rot, s_flw x = Some s /\ f_poisoned s = false /\
    write_buffer s (s_w x) b = (r, w', s', rot) /\
    ( (r = Ok tt /\ KRelD c crit {| s_flw := Some s'; s_w := w'; s_tl := []; s_dead := s_dead x |} (a_step a (OWrite b) rot))
      \/ (exists v, DeadDirD c w' v /\ flat v = flat a /\ length (closed_of v) <= S (apot a)) ).
Proof.
  intros Ew [Ht [Ha R]]. cbn [with_w s_tl s_w s_flw] in Ht, Ha, R. rewrite Ew. destruct a as [[cl cu]|].
  - destruct R as [wr [roll [Es [I [V [Z RS]]]]]]. rewrite <- V in Z.
    destruct (write_active_kd q wr cl roll b n I Z) as [r [w' [s' [rot' [E Out]]]]].
    exists (st_of_d c (length cl) roll wr), r, w', s', rot'. split; [exact Es|]. split; [reflexivity|]. split; [exact E|].
    destruct Out as [[q' [n' [wr' [roll' [cl' [-> [-> [-> [-> [I' [Z' [S' [V' R']]]]]]]]]]]]] | [qd [v [-> [Qd [Vw [Fl Len]]]]]]].
    + left. split; [reflexivity|]. exists q', n'. split; [reflexivity|].
      split; [reflexivity|]. split; [cbn [with_w s_w]; exact (same_env_acts _ _ S' Ha)|].
      cbn [a_step]. rewrite V in V'.
      destruct (rotation_necessary q roll); injection V' as <- V''; (exists wr', roll'; cbn [with_w s_flw s_w];
        split; [reflexivity|]; split; [exact I'|]; split; [exact V''|]; split; [rewrite <- V''; exact Z'|];
        exact (rsize_kept _ _ _ RS R')).
    + right. exists v. split; [split; [apply dead_kw; exact Qd | exact Vw]|].
      split; [rewrite Fl, V; reflexivity | exact Len].
  - destruct R as [Es [Q [Hn Hi]]].
    pose proof (initialize_empty_kd q n Q Hn Hi) as IE. destruct n as [|n'].
    + destruct IE as [r0 [a0 Ei]].
      destruct (wb_initial_dead (new_flw c) (kw q 1) b r0 _ eq_refl Ei (dead_kw q Q)) as [r [w' [s' [rot [E F]]]]].
      exists (new_flw c), r, w', s', rot. split; [exact Es|]. split; [reflexivity|]. split; [exact E|].
      right. exists None. destruct F as [D F]. cbn [kw set_kill set_acts wfs] in F.
      split; [split; [exact D | cbn [dir_view_d]; rewrite F; split; assumption]|]. split; [reflexivity | cbn; lia].
    + destruct IE as [q1 [wr [roll [Ei [I [V [Z [S1 RS]]]]]]]].
      assert (Z0 : roll_size_ok roll (length (cur_view q1 wr))) by (rewrite V; exact Z).
      destruct (write_active_kd q1 wr [] roll b n' I Z0) as [r [w' [s' [rot' [E Out]]]]].
      exists (new_flw c), r, w', s', rot'. split; [exact Es|]. split; [reflexivity|].
      split. { rewrite (write_buffer_init c (kw q (S (S n'))) b _ _ _ (kw q1 (S n')) Ei). exact E. }
      destruct Out as [[q' [n2 [wr' [roll' [cl' [-> [-> [-> [-> [I' [Z' [S' [V' R']]]]]]]]]]]]] | [qd [v [-> [Qd [Vw [Fl Len]]]]]]].
      * left. split; [reflexivity|]. exists q', n2. split; [reflexivity|].
        split; [reflexivity|]. split; [cbn [with_w s_w]; exact (same_env_acts _ _ (same_env_trans _ _ _ S1 S') Ha)|].
        cbn [a_step]. rewrite V in V'. cbn [app] in V'.
        destruct (rotation_necessary q1 roll); injection V' as <- V''; (exists wr', roll'; cbn [with_w s_flw s_w];
          split; [reflexivity|]; split; [exact I'|]; split; [exact V''|]; split; [rewrite <- V''; exact Z'|]).
        -- intros m Hm. rewrite (RS m Hm) in R'. destruct (R' m 0%N eq_refl) as [k' ->]; eauto.
        -- intros m Hm. rewrite (RS m Hm) in R'. destruct (R' m 0%N eq_refl) as [k' ->]; eauto.
      * right. exists v. split; [split; [apply dead_kw; exact Qd | exact Vw]|].
        split; [rewrite Fl, V; reflexivity | exact Len].
Qed.

Lemma krel_flw_d x a : KRelD c crit x a -> exists s, s_flw x = Some s /\ f_cfg s = c.
Proof.
  intros [q [n [_ [_ [_ R]]]]]. cbn [with_w s_flw] in R.
  destruct a as [[cl cu]|]; [destruct R as [wr [roll [Es _]]] | destruct R as [Es _]]; rewrite Es; eexists; split; reflexivity.
Qed.

Lemma step_sync_kd x a o : KRelD c crit x a -> step x o = sync_step x o.
Proof.
  intros K. destruct (krel_flw_d x a K) as [s [Es Ec]]. destruct Hcfg as [_ [Hts [_ Ha]]].
  apply (step_sync_cfg x o s Es); rewrite Ec; assumption.
Qed.

(* ---- one basic operation of a process with a budget: it either completes (and is acknowledged), or the process
        dies in it, and then the directory holds exactly what was acknowledged before ---- *)
Lemma kstep_d x a o : KRelD c crit x a -> basic_op o ->
  let '(x', ob) := step x o in
  (alive (s_w x') = true /\ KRelD c crit x' (a_step a o (rot_of ob)))
  \/ (alive (s_w x') = false /\ exists v, DeadDirD c (s_w x') v /\ flat v = flat a /\ length (closed_of v) <= S (apot a)).
Proof.
  intros K Hb. rewrite (step_sync_kd x a o K). destruct K as [q [n [Ew R]]].
  destruct o; try contradiction; cbn [sync_step].
  - (* OWrite *)
    destruct (write_rel_kd x a b q n Ew R) as [s [r [w' [s' [rot [Es [Hp [E Out]]]]]]]].
    rewrite Es, Hp. pose proof (proj1 R) as Ht. cbn [with_w s_tl] in Ht. rewrite Ht. cbn [app]. rewrite E. cbn [rot_of].
    destruct Out as [[-> K'] | [v [D [Fl Len]]]].
    + left. split; [|exact K']. destruct K' as [q' [n' [E' _]]]. cbn [s_w] in E' |- *. rewrite E'. reflexivity.
    + right. cbn [s_w].
      rewrite report_write_dead by apply D. split; [apply dead_not_alive; apply D|]. exists v. auto.
  - (* OPlain *)
    destruct (write_rel_kd x a b q n Ew R) as [s [r [w' [s' [rot [Es [Hp [E Out]]]]]]]].
    rewrite Es, Hp, E. cbn [rot_of]. pose proof (proj1 R) as Ht. cbn [with_w s_tl] in Ht. rewrite Ht.
    destruct Out as [[-> K'] | [v [D [Fl Len]]]].
    + left. split; [|exact K']. destruct K' as [q' [n' [E' _]]]. cbn [s_w] in E' |- *. rewrite E'. reflexivity.
    + right. cbn [s_w]. split; [apply dead_not_alive; apply D|]. exists v. auto.
  - (* OFlush *)
    destruct R as [Ht [Ha R]]. cbn [with_w s_tl s_w s_flw] in Ht, Ha, R. destruct a as [[cl cu]|].
    + destruct R as [wr [roll [Es [I [V [Z RS]]]]]]. rewrite Es. cbn [st_of_d f_poisoned].
      destruct (direct_wr_d q wr cl I) as [Pw _].
      unfold flush_state, st_of_d. cbn [f_inner]. rewrite w_flush_nop by exact Pw. rewrite (writer_eta wr Pw).
      cbn [rot_of a_step s_w]. left. split; [rewrite Ew; reflexivity|].
      exists q, n. split; [exact Ew|]. split; [exact Ht|]. split; [exact Ha|].
      exists wr, roll. cbn [with_w s_flw s_w]. split; [reflexivity|]. split; [exact I|]. split; [exact V|]. split; assumption.
    + destruct R as [Es R]. rewrite Es. cbn [new_flw f_poisoned flush_state f_inner rot_of a_step s_w].
      left. split; [rewrite Ew; reflexivity|]. exists q, n. split; [exact Ew|]. split; [exact Ht|]. split; [exact Ha|].
      split; [reflexivity | exact R].
  - (* OTrigger *)
    destruct R as [Ht [Ha R]]. cbn [with_w s_tl s_w s_flw] in Ht, Ha, R. destruct a as [[cl cu]|].
    + destruct R as [wr [roll [Es [I [V [Z RS]]]]]]. rewrite Es. cbn [st_of_d f_poisoned f_cfg f_inner]. rewrite Ew.
      destruct (direct_wr_d q wr cl I) as [Pw _]. pose proof (nd_quiet _ _ _ _ I) as Q.
      pose proof (mount_next_kd q wr cl roll true n I eq_refl) as M.
      destruct n as [|n'].
      * destruct M as [r1 [st1 E1]]. rewrite E1. right. cbn [s_w]. split; [reflexivity|].
        exists (Some (cl, cur_view q wr)). split; [split; [apply dead_kw; exact Q | exact (numdinv_dir c q wr cl I Pw)]|].
        split; [rewrite V; reflexivity | cbn; lia].
      * destruct M as [q' [wr' [roll' [E1 [I' [V' [Z' [S' R']]]]]]]]. rewrite E1. left.
        cbn [rot_of a_step code_of with_inner f_cfg f_poisoned s_w]. split; [reflexivity|].
        exists q', n'. split; [reflexivity|]. split; [exact Ht|]. split; [cbn [with_w s_w]; exact (same_env_acts _ _ S' Ha)|].
        rewrite V in *. exists wr', roll'. cbn [with_w s_flw s_w].
        split; [reflexivity|]. split; [exact I'|]. split; [exact V'|]. split; [exact Z'|].
        exact (rsize_kept _ _ _ RS R').
    + destruct R as [Es R]. rewrite Es. cbn [new_flw f_poisoned f_cfg f_inner mount_next with_inner rot_of a_step code_of s_w].
      left. split; [rewrite Ew; reflexivity|]. exists q, n. split; [exact Ew|]. split; [exact Ht|]. split; [exact Ha|].
      split; [reflexivity | exact R].
  - (* OTick *)
    cbn [rot_of a_step s_w]. left. rewrite Ew. split; [reflexivity|].
    exists (set_now q (wnow q + dt)%Z), n. split; [reflexivity|].
    destruct R as [Ht [Ha R]]. cbn [with_w s_tl s_w s_flw] in Ht, Ha, R.
    split; [exact Ht|]. split; [exact Ha|]. destruct a as [[cl cu]|].
    + destruct R as [wr [roll [Es [I [V [Z RS]]]]]]. exists wr, roll. cbn [with_w s_flw s_w].
      split; [exact Es|]. split; [apply (numdinv_env c q); [exact I | reflexivity | apply quiet_set_now; apply I]|].
      split; [exact V|]. split; assumption.
    + cbn [with_w s_flw s_w]. destruct R as [Es [Q [Hn Hi]]]. split; [exact Es|]. split; [apply quiet_set_now; exact Q|]. split; assumption.
  - (* OSnap *)
    cbn [rot_of a_step]. left. split; [rewrite Ew; reflexivity|]. exists q, n. split; [exact Ew | exact R].
Qed.

Lemma crash_alive_d x a : KRelD c crit x a ->
  exists v, IdleD c (fst (step x OCrash)) v /\ flat v = flat a /\ length (closed_of v) = apot a.
Proof.
  intros [q [n [Ew [Ht [Ha R]]]]]. rewrite step_crash. cbn [sync_step fst]. cbn [with_w s_tl s_w s_flw] in Ht, Ha, R.
  unfold IdleD. cbn [s_tl s_w s_flw]. rewrite Ew. cbn [kw set_kill set_acts wfs wacts].
  destruct a as [[cl cu]|].
  - destruct R as [wr [roll [Es [I [V [Z RS]]]]]]. destruct (direct_wr_d q wr cl I) as [Pw _].
    pose proof (numdinv_dir c q wr cl I Pw) as Vw. rewrite V in Vw. pose proof (nd_quiet _ _ _ _ I) as [Qf _].
    exists (Some (cl, cu)). split; [|split; reflexivity].
    split; [reflexivity|]. split; [reflexivity|]. split; [reflexivity|]. split; [split; [exact Qf | reflexivity] | exact Vw].
  - destruct R as [Es [[Qf _] [Hn Hi]]].
    exists None. split; [|split; reflexivity].
    split; [reflexivity|]. split; [reflexivity|]. split; [reflexivity|]. split; [split; [exact Qf | reflexivity]|].
    cbn [dir_view_d]. split; assumption.
Qed.

Lemma crash_dead_d x v : DeadDirD c (s_w x) v -> IdleD c (fst (step x OCrash)) v.
Proof.
  intros [[_ Df] V]. rewrite step_crash. cbn [sync_step fst]. unfold IdleD. cbn [s_tl s_w s_flw set_kill set_acts wfs wacts].
  split; [reflexivity|]. split; [reflexivity|]. split; [reflexivity|]. split; [split; [exact Df | reflexivity] | exact V].
Qed.

Lemma arm_krel_d x a k : RelD c crit x a -> KRelD c crit (fst (step x (OSetKill k))) a.
Proof.
  intros R. rewrite (step_sync_rel_d c crit x a _ Hcfg R). cbn [sync_step fst].
  exists (s_w x), k. split; [reflexivity|]. unfold with_w. cbn [s_flw s_tl s_dead]. destruct x; exact R.
Qed.

(* ---- the whole history of the killed process ---- *)
Lemma armed_d t0 off ops1 k : Forall basic_op ops1 ->
  exists a1, KRelD c crit (fst (run (fst (step (sys0 t0 off) (OStart c))) (ops1 ++ [OSetKill k]))) a1
    /\ flat a1 = written ops1 /\ apot a1 <= length ops1.
Proof.
  exact (armed_of_kstep (KRelD c crit) (RelD c crit) _ ops1 k (start_rel_d c crit t0 off) (run_rel_d c crit Hcfg) (fun x a => arm_krel_d x a k)).
Qed.

Lemma kill_history_d t0 off ops1 k ops2 : Forall basic_op ops1 -> Forall basic_op ops2 ->
  exists v, IdleD c (fst (run (sys0 t0 off) (OStart c :: ops1 ++ [OSetKill k] ++ ops2 ++ [OCrash]))) v
    /\ flat v = written ops1 ++ acked (fst (run (sys0 t0 off) (OStart c :: ops1 ++ [OSetKill k]))) ops2
    /\ length (closed_of v) <= S (length ops1 + length ops2).
Proof.
  intros Hb1 Hb2. rewrite !fst_run_cons. destruct (armed_d t0 off ops1 k Hb1) as [a1 [K2 [F1 P1]]].
  exact (history_of_kstep aview (KRelD c crit) (dir_view_d c) flat (fun v => length (closed_of v)) kstep_d
           (IdleD c) _ ops1 k ops2 a1 crash_alive_d crash_dead_d K2 F1 P1 Hb2).
Qed.

Lemma acked_prefix_kd : forall ops x a, KRelD c crit x a -> Forall basic_op ops ->
  exists j, acked x ops = written (firstn j ops).
Proof. exact (acked_prefix_of_kstep aview (KRelD c crit) (dir_view_d c) flat (fun v => length (closed_of v)) kstep_d). Qed.

Lemma kill_history_prefix_d t0 off ops1 k ops2 : Forall basic_op ops1 -> Forall basic_op ops2 ->
  exists j, acked (fst (run (sys0 t0 off) (OStart c :: ops1 ++ [OSetKill k]))) ops2 = written (firstn j ops2).
Proof.
  intros Hb1 Hb2. rewrite !fst_run_cons. destruct (armed_d t0 off ops1 k Hb1) as [a1 [K2 _]].
  exact (acked_prefix_kd ops2 _ a1 K2 Hb2).
Qed.

End DirectD.

Lemma idle_d_files c x v : IdleD c x v -> direct_view c (wfs (s_w x)) (files_of v) /\ concat (files_of v) = flat v.
Proof.
  intros [_ [_ [_ [_ D]]]]. destruct v as [[cl cu]|]; cbn [dir_view_d files_of flat] in *.
  - split; [apply D|]. rewrite concat_app. cbn [concat]. rewrite app_nil_r. reflexivity.
  - split; [apply direct_view_nil; apply D | reflexivity].
Qed.

(* After any history  OStart c :: ops1 ++ [OSetKill k] ++ ops2 ++ [OCrash]  from the empty directory (NumbersDirect naming,
   no cleanup, direct mode; ops1, ops2 any basic operations; any kill point k) the directory consists exactly of the plain
   files r00000 .. r(n) without a gap (files = [] stands for the empty directory, direct_view_nil), and they hold, in this
   order, exactly the acknowledged records: the payloads written by ops1 and those written by the operations of ops2 after
   which the process was still alive.  Nothing is lost, nothing else is there (in the model a write effect is atomic: the
   record whose write was killed is not in the file).  The last file may be empty (kill between the creation of a file and
   the first write into it); when the kill hit the creation itself, the file is not there. *)
Theorem numbersdirect_kill_keeps_acked c crit t0 off ops1 k ops2 :
  numdcfg c crit -> c_cap c = None -> Forall basic_op ops1 -> Forall basic_op ops2 ->
  let x1 := fst (run (sys0 t0 off) (OStart c :: ops1 ++ [OSetKill k])) in
  let xe := fst (run (sys0 t0 off) (OStart c :: ops1 ++ [OSetKill k] ++ ops2 ++ [OCrash])) in
  exists files,
    direct_view c (wfs (s_w xe)) files
    /\ concat files = written ops1 ++ acked x1 ops2.
Proof.
  intros Hcfg Hcap Hb1 Hb2 x1 xe.
  destruct (kill_history_d c crit Hcfg Hcap t0 off ops1 k ops2 Hb1 Hb2) as [v [Id [F _]]].
  destruct (idle_d_files c _ v Id) as [R C].
  exists (files_of v). split; [exact R|]. rewrite C. exact F.
Qed.
Print Assumptions numbersdirect_kill_keeps_acked.

(* what is acknowledged is what a prefix of ops2 wrote *)
Theorem acked_is_prefix_d c crit t0 off ops1 k ops2 :
  numdcfg c crit -> c_cap c = None -> Forall basic_op ops1 -> Forall basic_op ops2 ->
  exists j, acked (fst (run (sys0 t0 off) (OStart c :: ops1 ++ [OSetKill k]))) ops2 = written (firstn j ops2).
Proof. intros Hcfg Hcap. apply (kill_history_prefix_d c crit Hcfg Hcap). Qed.
Print Assumptions acked_is_prefix_d.

(* ------------------------------------------------------------------ a new writer on the directory of the killed one *)
(* The directory that a killed writer leaves behind is one that a stopped writer could have left behind (r00000 .. r(n), no
   gap): the restart is the one of NumDRestart.v (one_run_d).  What is added here: every operation of the new writer
   succeeds. *)
Lemma one_run_ok_d c crit x v ops :
  numdcfg c crit -> (N.of_nat (length (closed_of v)) <= u32_max)%N -> Forall basic_op ops -> IdleD c x v ->
  Forall obs_ok (snd (run x (OStart c :: ops ++ [OStop]))).
Proof. exact (lone_run_ok _ _ _ _ numd_layout _ _ numd_restart c crit x v ops). Qed.

(* The restart after a kill, with one side condition that the model needs (as in numbersdirect_restarts_partial):
   the bound on the length of the first history, because the index that the restarting writer reads back from a listed file
   name is parsed as u32 and counts as 0 when it does not fit (NumRestart.index_beyond_u32_reads_as_0).  Nothing else is
   missing: any kill point, any histories, any capacity / append flag / criterion for the second writer.
   Every operation of the second writer succeeds, and the final directory r00000 .. r(n) holds exactly
   written ops1 ++ acked .. ops2 ++ written ops3. *)
Theorem numbersdirect_kill_restart_partial c crit c' crit' t0 off ops1 k ops2 ops3 :
  numdcfg c crit -> c_cap c = None -> numdcfg c' crit' -> c_spec c' = c_spec c ->
  Forall basic_op ops1 -> Forall basic_op ops2 -> Forall basic_op ops3 ->
  (N.of_nat (S (length ops1 + length ops2)) <= u32_max)%N ->
  let x1 := fst (run (sys0 t0 off) (OStart c :: ops1 ++ [OSetKill k])) in
  let xk := fst (run (sys0 t0 off) (OStart c :: ops1 ++ [OSetKill k] ++ ops2 ++ [OCrash])) in
  let r2 := run xk (OStart c' :: ops3 ++ [OStop]) in
  Forall obs_ok (snd r2)
  /\ exists files,
       direct_view c' (wfs (s_w (fst r2))) files
       /\ concat files = written ops1 ++ acked x1 ops2 ++ written ops3.
Proof.
  intros Hcfg Hcap Hcfg' Hsp Hb1 Hb2 Hb3 Hbound x1 xk r2.
  destruct (kill_history_d c crit Hcfg Hcap t0 off ops1 k ops2 Hb1 Hb2) as [v [Id [F Len]]].
  fold xk in Id. fold x1 in F.
  assert (Hb : (N.of_nat (length (closed_of v)) <= u32_max)%N) by lia.
  pose proof (idle_d_spec c c' xk v (eq_sym Hsp) Id) as Id'.
  split; [exact (one_run_ok_d c' crit' xk v ops3 Hcfg' Hb Hb3 Id')|].
  destruct (one_run_d c' crit' xk v ops3 Hcfg' Hb Hb3 Id') as [v' [Id2 [F2 _]]].
  destruct (idle_d_files c' _ v' Id2) as [R C].
  exists (files_of v'). split; [exact R|]. rewrite C, F2, F, <- app_assoc. reflexivity.
Qed.
Print Assumptions numbersdirect_kill_restart_partial.

(* ------------------------------------------------------------------ examples (non-vacuity) *)
Open Scope string_scope.
(* first writer: direct mode, size criterion 3 *)
Definition kd_cfg : config := exd_cfg (ex_sp "log") false (CSize 3) None.
Definition kd_ops1 : list op := [OWrite (bs "abcd"); OWrite (bs "ef")].
Definition kd_ops2 : list op := [OTrigger; OWrite (bs "gh"); OSnap; OWrite (bs "ij")].
Definition kd_hist (k : nat) : list op := OStart kd_cfg :: kd_ops1 ++ [OSetKill k] ++ kd_ops2 ++ [OCrash].
Definition kd_armed (k : nat) : sys := fst (run (sys0 0 0) (OStart kd_cfg :: kd_ops1 ++ [OSetKill k])).

Lemma kd_numdcfg : numdcfg kd_cfg (CSize 3).
Proof. repeat split. Qed.
Lemma kd_basic1 : Forall basic_op kd_ops1.
Proof. repeat constructor. Qed.
Lemma kd_basic2 : Forall basic_op kd_ops2.
Proof. repeat constructor. Qed.

(* the kill points of this history: 0 - the creation of r00002 (the trigger) is the kill point, nothing changes;
   1 - the rotation is completed (acknowledged, it writes nothing), the write of "gh" is the kill point: r00002 is there, empty;
   2 - "gh" is written, the write of "ij" is the kill point; 3 - everything happens *)
Example kd_kill_points_dirs :
  snap_of (fst (run (sys0 0 0) (kd_hist 0)))
  = [ (bs "app_r00000.log", 0%N, bs "abcd"); (bs "app_r00001.log", 0%N, bs "ef") ]
  /\ snap_of (fst (run (sys0 0 0) (kd_hist 1)))
  = [ (bs "app_r00000.log", 0%N, bs "abcd"); (bs "app_r00001.log", 0%N, bs "ef"); (bs "app_r00002.log", 0%N, []) ]
  /\ snap_of (fst (run (sys0 0 0) (kd_hist 2)))
  = [ (bs "app_r00000.log", 0%N, bs "abcd"); (bs "app_r00001.log", 0%N, bs "ef"); (bs "app_r00002.log", 0%N, bs "gh") ]
  /\ snap_of (fst (run (sys0 0 0) (kd_hist 3)))
  = [ (bs "app_r00000.log", 0%N, bs "abcd"); (bs "app_r00001.log", 0%N, bs "ef"); (bs "app_r00002.log", 0%N, bs "ghij") ]
  /\ acked (kd_armed 0) kd_ops2 = [] /\ acked (kd_armed 1) kd_ops2 = [] /\ acked (kd_armed 2) kd_ops2 = bs "gh"
  /\ acked (kd_armed 3) kd_ops2 = bs "ghij".
Proof. vm_compute. repeat split; reflexivity. Qed.

Example kd_kill_alive :
  List.map (fun j => alive (s_w (fst (run (kd_armed 1) (firstn j kd_ops2))))) [0; 1; 2; 3; 4] = [true; true; false; false; false].
Proof. vm_compute. reflexivity. Qed.

Example kd_kill_instance :
  exists files,
    direct_view kd_cfg (wfs (s_w (fst (run (sys0 0 0) (kd_hist 1))))) files /\ concat files = bs "abcdef".
Proof.
  destruct (numbersdirect_kill_keeps_acked kd_cfg (CSize 3) 0 0 kd_ops1 1 kd_ops2 kd_numdcfg eq_refl kd_basic1 kd_basic2)
    as [files [R E]].
  exists files. split; [exact R|]. rewrite E. vm_compute. reflexivity.
Qed.

(* a kill inside a write that rotates: "ghij" is written and acknowledged, the next write rotates (6 > 3: r00002 is created)
   and is killed at its write effect *)
Example kd_kill_in_rotating_write :
  let ops2 := [OWrite (bs "ghij"); OWrite (bs "kl")] in
  snap_of (fst (run (sys0 0 0) (OStart kd_cfg :: kd_ops1 ++ [OSetKill 2] ++ ops2 ++ [OCrash])))
  = [ (bs "app_r00000.log", 0%N, bs "abcd"); (bs "app_r00001.log", 0%N, bs "efghij"); (bs "app_r00002.log", 0%N, []) ]
  /\ acked (kd_armed 2) ops2 = bs "ghij".
Proof. vm_compute. split; reflexivity. Qed.

(* a kill in the very first write: the creation of r00000 is the kill point, the directory stays empty; one effect later the
   empty r00000 is there *)
Example kd_kill_in_first_write :
  snap_of (fst (run (sys0 0 0) (OStart kd_cfg :: [] ++ [OSetKill 0] ++ [OWrite (bs "a")] ++ [OCrash]))) = []
  /\ snap_of (fst (run (sys0 0 0) (OStart kd_cfg :: [] ++ [OSetKill 1] ++ [OWrite (bs "a")] ++ [OCrash])))
     = [ (bs "app_r00000.log", 0%N, []) ].
Proof. vm_compute. split; reflexivity. Qed.

(* the restart: a buffered writer on the directory with the freshly created empty r00002 - with append it continues the
   empty file, without append it starts r00003 (the empty file stays) *)
Definition kd_cfg2 (app : bool) : config := exd_cfg (ex_sp "log") app (CSize 100) (Some 8%nat).
Definition kd_ops3 : list op := [OWrite (bs "xy"); OFlush; OTick 5; OWrite (bs "z")].

Example kd_restart_after_kill_dirs :
  snap_of (fst (run (fst (run (sys0 0 0) (kd_hist 1))) (OStart (kd_cfg2 true) :: kd_ops3 ++ [OStop])))
  = [ (bs "app_r00000.log", 0%N, bs "abcd"); (bs "app_r00001.log", 0%N, bs "ef"); (bs "app_r00002.log", 0%N, bs "xyz") ]
  /\ snap_of (fst (run (fst (run (sys0 0 0) (kd_hist 1))) (OStart (kd_cfg2 false) :: kd_ops3 ++ [OStop])))
  = [ (bs "app_r00000.log", 0%N, bs "abcd"); (bs "app_r00001.log", 0%N, bs "ef"); (bs "app_r00002.log", 0%N, []);
      (bs "app_r00003.log", 0%N, bs "xyz") ]
  /\ snap_of (fst (run (fst (run (sys0 0 0) (kd_hist 0))) (OStart (kd_cfg2 true) :: kd_ops3 ++ [OStop])))
  = [ (bs "app_r00000.log", 0%N, bs "abcd"); (bs "app_r00001.log", 0%N, bs "efxyz") ].
Proof. vm_compute. repeat split; reflexivity. Qed.

Example kd_restart_after_kill_instance :
  let r2 := run (fst (run (sys0 0 0) (kd_hist 2))) (OStart (kd_cfg2 false) :: kd_ops3 ++ [OStop]) in
  Forall obs_ok (snd r2)
  /\ exists files, direct_view (kd_cfg2 false) (wfs (s_w (fst r2))) files /\ concat files = bs "abcdefghxyz".
Proof.
  assert (H : numdcfg (kd_cfg2 false) (CSize 100)) by (repeat split).
  assert (H3 : Forall basic_op kd_ops3) by (repeat constructor).
  assert (Hb : (N.of_nat (S (length kd_ops1 + length kd_ops2)) <= u32_max)%N) by (vm_compute; discriminate).
  destruct (numbersdirect_kill_restart_partial kd_cfg (CSize 3) (kd_cfg2 false) (CSize 100) 0 0 kd_ops1 2 kd_ops2 kd_ops3
              kd_numdcfg eq_refl H eq_refl kd_basic1 kd_basic2 H3 Hb) as [K [files [R E]]].
  split; [exact K|]. exists files. split; [exact R|]. rewrite E. vm_compute. reflexivity.
Qed.

Print Assumptions numbersdirect_kill_keeps_acked.
Print Assumptions numbersdirect_kill_restart_partial.
