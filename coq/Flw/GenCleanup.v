(* The cleanup on a directory whose rotated files are named by an ABSTRACT naming  nmf : nat -> bytes  (index = position in
   the order of writing):  plain files nmf i for mid <= i < L, archives gz_name (nmf i) for lo <= i < mid, possibly one more
   name cn (rCURRENT), nothing else; what is needed of the names is collected in `gnames`.  The statements of the time-stamp
   namings, whose files are named by keys (second, position), are written with gdir and gnames of this file.  The cleanup
   step and the steps of a writer are those of NumCleanupStep.v, NumCleanupRun.v and NumDCleanupRun.v, stated there over
   records with the same fields (gnames_num and gdir_num carry them over).  Proved here: the directory name by name
   (gdir_properties) and the listing of the cleanup for any infix filter (list_log_gz_gen). *)
Require Import FL.Base.Bytes FL.Base.BytesFacts FL.Base.PathName FL.Fs.Fs FL.Fs.FsFacts FL.Names.FileSpec FL.Names.SortFacts
  FL.Flw.Model FL.Flw.ModelFacts FL.Flw.NumFs FL.Flw.NumInv FL.Flw.NumListing FL.Flw.CleanupFacts FL.Flw.NumCleanupNames
  FL.Flw.NumCleanupStep FL.Flw.NumCleanupRun FL.Flw.NumCleanup FL.Flw.NumDCleanupRun.
From Coq Require Import Lia Sorted.
Open Scope nat_scope.

Definition gzf (nmf : nat -> bytes) (i : nat) : bytes := gz_name (nmf i).

(* what is needed of the first L names *)
Record gnames (nmf : nat -> bytes) (cn : bytes) (L : nat) : Prop := {
  gn_inj : forall i j, i < L -> j < L -> nmf i = nmf j -> i = j;
  gn_ne : forall i, i < L -> nmf i <> [];
  gn_ng : forall i, i < L -> ext_is (nmf i) gz_sfx = false;
  gn_cn : forall i, i < L -> nmf i <> cn /\ gzf nmf i <> cn }.

Lemma gnames_le nmf cn L L' : L' <= L -> gnames nmf cn L -> gnames nmf cn L'.
Proof.
  intros H [A B C D]. constructor.
  - intros i j Hi Hj. apply A; lia.
  - intros i Hi. apply B; lia.
  - intros i Hi. apply C; lia.
  - intros i Hi. apply D; lia.
Qed.

Lemma gnames_ext nmf nmf' cn L : (forall i, i < L -> nmf' i = nmf i) -> gnames nmf cn L -> gnames nmf' cn L.
Proof.
  intros E [A B C D]. constructor.
  - intros i j Hi Hj. rewrite !E by assumption. apply A; assumption.
  - intros i Hi. rewrite E by assumption. apply B; assumption.
  - intros i Hi. rewrite E by assumption. apply C; assumption.
  - intros i Hi. unfold gzf. rewrite E by assumption. apply D; assumption.
Qed.

(* ------------------------------------------------------------------ the directory with contents *)
Record gdir (nmf : nat -> bytes) (cn : bytes) (f : fs) (closed : list bytes) (lo mid : nat) : Prop := {
  gd_le : lo <= mid <= length closed;
  gd_nodup : nodup_names f;
  gd_plain : forall i, mid <= i < length closed ->
      exists j, lookup f (nmf i) = Some j /\ plain (inode f j) /\ content f j = nth i closed [];
  gd_arch : forall i, lo <= i < mid ->
      exists j, lookup f (gzf nmf i) = Some j /\ fdata (inode f j) = nth i closed [] /\ fgz (inode f j) = 1%N /\ fdir (inode f j) = false;
  gd_only : forall n j, lookup f n = Some j ->
      n = cn \/ (exists i, mid <= i < length closed /\ n = nmf i) \/ (exists i, lo <= i < mid /\ n = gzf nmf i) }.

Lemma gdir_ext nmf nmf' cn f closed lo mid : (forall i, i < length closed -> nmf' i = nmf i) ->
  gdir nmf cn f closed lo mid -> gdir nmf' cn f closed lo mid.
Proof.
  intros E [Hle Hnd Hp Ha Hon]. constructor; auto.
  - intros i Hi. rewrite E by lia. apply Hp. exact Hi.
  - intros i Hi. unfold gzf. rewrite E by lia. apply Ha. exact Hi.
  - intros n j Lj. destruct (Hon n j Lj) as [->|[(i & Hi & ->)|(i & Hi & ->)]]; [left; reflexivity | right; left | right; right];
      exists i; (split; [exact Hi|]); unfold gzf; rewrite E by lia; reflexivity.
Qed.


Lemma gnames_num nmf cn L : gnames nmf cn L <-> NumCleanupNames.gnames nmf cn L.
Proof. split; intros [A B C D]; constructor; assumption. Qed.
Lemma gdir_num nmf cn f closed lo mid : gdir nmf cn f closed lo mid <-> NumCleanupStep.gdir nmf cn f closed lo mid.
Proof. split; intros [A B C D E]; constructor; assumption. Qed.
Lemma gnames_rn nmf cn L : gnames nmf cn L -> rnames nmf cn L.
Proof. intros GN. apply gnames_rnames, gnames_num, GN. Qed.

(* the listing, newest first, and its entry for the file i *)
Definition glisting (nmf : nat -> bytes) (lo mid L : nat) : list bytes :=
  rev (map nmf (seq mid (L - mid))) ++ rev (map (gzf nmf) (seq lo (mid - lo))).
Definition gentry (nmf : nat -> bytes) (mid i : nat) : bytes := if mid <=? i then nmf i else gzf nmf i.
Lemma gentry_plain nmf mid i : mid <= i -> gentry nmf mid i = nmf i.
Proof. exact (NumCleanupNames.gentry_plain nmf mid i). Qed.
Lemma gentry_arch nmf mid i : i < mid -> gentry nmf mid i = gzf nmf i.
Proof. exact (NumCleanupNames.gentry_arch nmf mid i). Qed.
Lemma gentry_inj nmf cn L (GN : gnames nmf cn L) mid i j : i < L -> j < L -> gentry nmf mid i = gentry nmf mid j -> i = j.
Proof. exact (NumCleanupNames.gentry_inj nmf cn L (proj1 (gnames_num _ _ _) GN) mid i j). Qed.

(* ------------------------------------------------------------------ the directory name by name *)
Lemma gdir_names nmf cn f all lo mid : gdir nmf cn f all lo mid -> lookup f cn = None ->
  forall x, (exists j, lookup f x = Some j) <->
    (exists i, mid <= i < length all /\ x = nmf i) \/ (exists i, lo <= i < mid /\ x = gzf nmf i).
Proof.
  intros [Hle Hnd Hp Ha Hon] Hnc x. split.
  - intros [j Lj]. destruct (Hon _ _ Lj) as [->|H]; [congruence | exact H].
  - intros [(i & Hi & ->)|(i & Hi & ->)].
    + destruct (Hp i Hi) as (j & Lj & _). eauto.
    + destruct (Ha i Hi) as (j & Lj & _). eauto.
Qed.

Lemma gdir_names_cn nmf cn f all lo mid jc : gdir nmf cn f all lo mid -> lookup f cn = Some jc ->
  forall x, (exists j, lookup f x = Some j) <->
    x = cn \/ (exists i, mid <= i < length all /\ x = nmf i) \/ (exists i, lo <= i < mid /\ x = gzf nmf i).
Proof.
  intros [Hle Hnd Hp Ha Hon] Hc x. split.
  - intros [j Lj]. exact (Hon _ _ Lj).
  - intros [->|[(i & Hi & ->)|(i & Hi & ->)]].
    + eauto.
    + destruct (Hp i Hi) as (j & Lj & _). eauto.
    + destruct (Ha i Hi) as (j & Lj & _). eauto.
Qed.

Section Properties.
Variables (nmf : nat -> bytes) (cn : bytes) (f : fs) (all : list bytes) (lo mid : nat).
Hypothesis GN : gnames nmf cn (length all).
Hypothesis KD : gdir nmf cn f all lo mid.
Let GN' := proj1 (gnames_num _ _ _) GN.

(* a file below the plain zone has no plain file, a file outside the archive zone has no archive *)
Lemma gdir_no_plain i : i < mid -> i < length all -> lookup f (nmf i) = None.
Proof.
  intros H1 H2. destruct (lookup f (nmf i)) as [j|] eqn:E; [exfalso | reflexivity].
  destruct (gd_only _ _ _ _ _ _ KD _ _ E) as [X|[(i' & Hi' & X)|(i' & Hi' & X)]].
  - exact (proj1 (gn_cn _ _ _ GN i H2) X).
  - apply (gn_inj _ _ _ GN) in X; lia.
  - symmetry in X. apply (gzf_not_nmf _ _ _ GN') in X; [exact X | | exact H2]. pose proof (gd_le _ _ _ _ _ _ KD). lia.
Qed.
Lemma gdir_no_arch i : i < lo \/ mid <= i -> i < length all -> lookup f (gzf nmf i) = None.
Proof.
  intros H1 H2. destruct (lookup f (gzf nmf i)) as [j|] eqn:E; [exfalso | reflexivity].
  destruct (gd_only _ _ _ _ _ _ KD _ _ E) as [X|[(i' & Hi' & X)|(i' & Hi' & X)]].
  - exact (proj2 (gn_cn _ _ _ GN i H2) X).
  - apply (gzf_not_nmf _ _ _ GN') in X; [exact X | exact H2 | lia].
  - pose proof (gd_le _ _ _ _ _ _ KD). apply (gzf_inj _ _ _ GN') in X; lia.
Qed.

(* the plain files as they were closed, the archives with what the file held, nothing older; read in the order of
   writing the survivors give the contents from lo on *)
Lemma gdir_properties :
  (forall i, mid <= i < length all -> lookup f (gzf nmf i) = None /\
     exists fl, file_of f (nmf i) = Some fl /\ fdata fl = nth i all [] /\ fgz fl = 0%N /\ fdir fl = false)
  /\ (forall i, lo <= i < mid -> lookup f (nmf i) = None /\
        exists fl, file_of f (gzf nmf i) = Some fl /\ fdata fl = nth i all [] /\ fgz fl = 1%N /\ fdir fl = false)
  /\ (forall i, i < lo -> lookup f (nmf i) = None /\ lookup f (gzf nmf i) = None)
  /\ map (fun i => data_at f (gentry nmf mid i)) (seq lo (length all - lo)) = skipn lo all.
Proof.
  pose proof (gd_le _ _ _ _ _ _ KD) as Hle.
  split; [|split; [|split]].
  - intros i Hi. split; [apply gdir_no_arch; lia|].
    destruct (gd_plain _ _ _ _ _ _ KD i Hi) as (j & Lj & [Gj Dj] & Cj). exists (inode f j). rewrite (file_of_lookup _ _ _ Lj). auto.
  - intros i Hi. split; [apply gdir_no_plain; lia|].
    destruct (gd_arch _ _ _ _ _ _ KD i Hi) as (j & Lj & Dj & Gj & Fj). exists (inode f j). rewrite (file_of_lookup _ _ _ Lj). auto.
  - intros i Hi. split; [apply gdir_no_plain; lia | apply gdir_no_arch; lia].
  - apply (map_seq_skipn _ all []); [lia|]. intros i Hi. unfold data_at. destruct (Nat.le_gt_cases mid i) as [H|H].
    + rewrite gentry_plain by exact H. destruct (gd_plain _ _ _ _ _ _ KD i ltac:(lia)) as (j & Lj & _ & Cj).
      rewrite (file_of_lookup _ _ _ Lj). exact Cj.
    + rewrite gentry_arch by exact H. destruct (gd_arch _ _ _ _ _ _ KD i ltac:(lia)) as (j & Lj & Dj & _).
      rewrite (file_of_lookup _ _ _ Lj). exact Dj.
Qed.
End Properties.

Lemma NoDup_map_seq {A} (g : nat -> A) : forall cnt a,
  (forall i j, a <= i < a + cnt -> a <= j < a + cnt -> g i = g j -> i = j) -> NoDup (map g (seq a cnt)).
Proof.
  induction cnt as [|cnt IH]; intros a H; cbn [seq map]; constructor.
  - intros I. apply in_map_iff in I. destruct I as (j & E & Hj). apply in_seq in Hj. apply H in E; lia.
  - apply IH. intros i j Hi Hj. apply H; lia.
Qed.

(* ------------------------------------------------------------------ what list_log_gz finds *)
(* Over any naming and any infix filter: if the sort key orders the names - plain or archive, mixed - by their index, every
   name carries the fixed part, and the filter accepts exactly the plain names as log files and exactly the archive names
   as archives (and never cn), then the listing of the cleanup is glisting. *)
Section GenListing.
Variables (sp : file_spec) (fixed : bytes) (flt : infix_filter) (off : Z).
Variables (nmf : nat -> bytes) (cn : bytes) (f : fs) (closed : list bytes) (lo mid : nat).
Hypothesis GN : gnames nmf cn (length closed).
Hypothesis KD : gdir nmf cn f closed lo mid.
Hypothesis Hord : forall i j (g1 g2 : bool), i < j -> j < length closed ->
  key_le (fsfx sp) (add_gz g1 (nmf i)) (add_gz g2 (nmf j)) = true.
Hypothesis Hpre : forall i (g : bool), i < length closed -> is_prefix fixed (add_gz g (nmf i)) = true.
Hypothesis Qpp : forall i, i < length closed -> qf off (fsfx sp) fixed flt (fsfx sp) (nmf i) = true.
Hypothesis Qpg : forall i, i < length closed -> qf off (fsfx sp) fixed flt (Some gz_sfx) (nmf i) = false.
Hypothesis Qgg : forall i, i < length closed -> qf off (fsfx sp) fixed flt (Some gz_sfx) (gzf nmf i) = true.
Hypothesis Qgp : forall i, i < length closed -> qf off (fsfx sp) fixed flt (fsfx sp) (gzf nmf i) = false.
Hypothesis Qcp : qf off (fsfx sp) fixed flt (fsfx sp) cn = false.
Hypothesis Qcg : qf off (fsfx sp) fixed flt (Some gz_sfx) cn = false.

Let L := length closed.

Lemma gzf_add_gz i : gzf nmf i = add_gz true (nmf i).
Proof. unfold gzf. rewrite gz_name_app. reflexivity. Qed.

Theorem list_log_gz_gen : list_log_gz off sp fixed f flt = Some (glisting nmf lo mid L).
Proof.
  pose proof (gd_le _ _ _ _ _ _ KD) as Hle. fold L in Hle. pose proof (proj1 (gnames_num _ _ _) GN) as GN'.
  unfold glisting. apply list_log_gz_sorted.
  - exact (gd_nodup _ _ _ _ _ _ KD).
  - apply StronglySorted_map_seq. intros i j _ Hij Hj. apply (Hord i j false false Hij). fold L. lia.
  - apply StronglySorted_map_seq. intros i j _ Hij Hj. unfold key_rel. fold (gzf nmf i) (gzf nmf j). rewrite !gzf_add_gz.
    apply (Hord i j true true Hij). fold L. lia.
  - apply NoDup_map_seq. intros i j Hi Hj. apply (gn_inj _ _ _ GN); fold L; lia.
  - apply NoDup_map_seq. intros i j Hi Hj. apply (gzf_inj _ _ _ GN'); fold L; lia.
  - intros x. rewrite in_map_iff. split.
    + intros (i & <- & Hi). apply in_seq in Hi. destruct (gd_plain _ _ _ _ _ _ KD i ltac:(fold L; lia)) as (j & Lj & [_ Dj] & _).
      split; [split; [eauto | split]|].
      * rewrite (is_reg_file_lookup _ _ _ Lj), Dj. reflexivity.
      * apply (Hpre i false). fold L. lia.
      * apply Qpp. fold L. lia.
    + intros [[[j Lj] _] Q]. destruct (gd_only _ _ _ _ _ _ KD x j Lj) as [->|[(i & Hi & ->)|(i & Hi & ->)]].
      * rewrite Qcp in Q. discriminate.
      * exists i. split; [reflexivity | apply in_seq; fold L in Hi; lia].
      * rewrite Qgp in Q by (fold L; lia). discriminate.
  - intros x. rewrite in_map_iff. split.
    + intros (i & <- & Hi). apply in_seq in Hi. destruct (gd_arch _ _ _ _ _ _ KD i ltac:(lia)) as (j & Lj & _ & _ & Dj).
      split; [split; [eauto | split]|].
      * rewrite (is_reg_file_lookup _ _ _ Lj), Dj. reflexivity.
      * fold (gzf nmf i). rewrite gzf_add_gz. apply (Hpre i true). fold L. lia.
      * apply Qgg. fold L. lia.
    + intros [[[j Lj] _] Q]. destruct (gd_only _ _ _ _ _ _ KD x j Lj) as [->|[(i & Hi & ->)|(i & Hi & ->)]].
      * rewrite Qcg in Q. discriminate.
      * rewrite Qpg in Q by apply Hi. discriminate.
      * exists i. split; [reflexivity | apply in_seq; lia].
Qed.
End GenListing.

(* ------------------------------------------------------------------ one cleanup *)
Theorem gcleanup nmf cn w n m closed lo mid :
  gnames nmf cn (length closed) -> quiet w -> fs_wf (wfs w) -> gdir nmf cn (wfs w) closed lo mid ->
  exists w', cleanup_body w (glisting nmf lo mid (length closed)) n m None = (Ok tt, w') /\ same_env w w' /\ fs_wf (wfs w')
    /\ gdir nmf cn (wfs w') closed (Nat.max lo (length closed - (n + m))) (Nat.max mid (length closed - n))
    /\ same_at (wfs w) (wfs w') cn
    /\ (forall i, Nat.max mid (length closed - n) <= i < length closed -> same_at (wfs w) (wfs w') (nmf i)).
Proof.
  intros GN Q W KD.
  destruct (NumCleanupStep.gcleanup nmf cn w n m closed lo mid (proj1 (gnames_num _ _ _) GN) Q W (proj1 (gdir_num _ _ _ _ _ _) KD))
    as (w' & E & S & W' & KD' & R). exists w'. rewrite <- gdir_num in KD'. auto.
Qed.
Print Assumptions gcleanup.

(* The same with the current output file handed over (a DIRECT naming: cur = Some (the newest named file), first limit at
   least 1): the file is at position 0 of the listing - if it is listed at all -, where it is kept anyway; that the loop
   skips it makes no difference. *)
Theorem gcleanup_d nmf cn w n m closed lo mid :
  gnames nmf cn (length closed) -> quiet w -> fs_wf (wfs w) -> gdir nmf cn (wfs w) closed lo mid -> 1 <= n ->
  exists w', cleanup_body w (glisting nmf lo mid (length closed)) n m (Some (nmf (length closed - 1))) = (Ok tt, w')
    /\ same_env w w' /\ fs_wf (wfs w')
    /\ gdir nmf cn (wfs w') closed (Nat.max lo (length closed - (n + m))) (Nat.max mid (length closed - n))
    /\ same_at (wfs w) (wfs w') cn
    /\ (forall i, Nat.max mid (length closed - n) <= i < length closed -> same_at (wfs w) (wfs w') (nmf i)).
Proof.
  intros GN Q W KD Hn.
  destruct (NumCleanupStep.gcleanup_d nmf cn w n m closed lo mid (proj1 (gnames_num _ _ _) GN) Q W (proj1 (gdir_num _ _ _ _ _ _) KD) Hn)
    as (w' & E & S & W' & KD' & R). exists w'. rewrite <- gdir_num in KD'. auto.
Qed.
Print Assumptions gcleanup_d.

(* ------------------------------------------------------------------ the steps of a writer with a DIRECT naming *)
(* (the file being written is the newest named file nmf L, L = number of closed files; `closed` of gdir lists the contents of
   all named files, the last entry being what the current file holds on disk) *)
Lemma glen_snoc {A} (l : list A) x : length (l ++ [x]) = S (length l).
Proof. apply len_snoc. Qed.

Lemma gdir_rotate_d nmf cn f closed lo mid old pend now :
  gnames nmf cn (S (S (length closed))) ->
  fs_wf f -> gdir nmf cn f (closed ++ [content f old]) lo mid -> mid <= length closed ->
  lookup f (nmf (length closed)) = Some old -> lookup f cn = None ->
  lookup f (nmf (S (length closed))) = None /\
  let f3 := append_ino (fst (create_file f (nmf (S (length closed))) 0%N now)) old pend in
  let new := snd (create_file f (nmf (S (length closed))) 0%N now) in
  fs_wf f3 /\ lookup f3 (nmf (S (length closed))) = Some new /\ inode f3 new = fresh_file now
  /\ lookup f3 cn = None
  /\ gdir nmf cn f3 ((closed ++ [content f old ++ pend]) ++ [content f3 new]) lo mid.
Proof.
  intros GN W KD Hmid Hc Hnc. rewrite gdir_num in KD.
  destruct (gdir_rotate_direct nmf cn f closed lo mid old pend now (gnames_rn _ _ _ GN) W KD Hmid Hc Hnc) as (Ht & R).
  split; [exact Ht|]. cbn zeta in *. rewrite gdir_num. exact R.
Qed.

Lemma gdir_append nmf cn f closed lo mid old x :
  gnames nmf cn (S (length closed)) -> fs_wf f -> lookup f (nmf (length closed)) = Some old -> mid <= length closed ->
  gdir nmf cn f (closed ++ [content f old]) lo mid ->
  gdir nmf cn (append_ino f old x) (closed ++ [content f old ++ x]) lo mid.
Proof.
  intros GN W Hc Hmid KD. rewrite gdir_num in *. exact (gdir_append_direct nmf cn f closed lo mid old x (gnames_rn _ _ _ GN) W Hc Hmid KD).
Qed.

Lemma gdir_first nmf cn now :
  let f := {| names := [(nmf 0, 0)]; inodes := [fresh_file now] |} in
  gdir nmf cn f [content f 0] 0 0 /\ lookup f (nmf 0) = Some 0 /\ fs_wf f /\ content f 0 = [] /\ inode f 0 = fresh_file now.
Proof. cbn zeta. rewrite gdir_num. exact (gdir_first_direct nmf cn now). Qed.

(* ------------------------------------------------------------------ the steps of a writer with a CURRENT file cn *)
(* (the file being written is cn = rCURRENT; a rotation renames it to nmf L, L = number of closed files, and creates cn anew;
   `closed` of gdir lists the contents of the closed files) *)
Lemma gdir_rotate_r nmf cn f closed lo mid old pend now :
  gnames nmf cn (S (length closed)) ->
  fs_wf f -> gdir nmf cn f closed lo mid -> lookup f cn = Some old -> plain (inode f old) ->
  lookup f (nmf (length closed)) = None /\
  exists f1, rename f cn (nmf (length closed)) = Some f1 /\ lookup f1 cn = None /\
    let f3 := append_ino (fst (create_file f1 cn 0%N now)) old pend in
    let new := snd (create_file f1 cn 0%N now) in
    fs_wf f3 /\ lookup f3 cn = Some new /\ inode f3 new = fresh_file now
    /\ gdir nmf cn f3 (closed ++ [content f old ++ pend]) lo mid.
Proof.
  intros GN W KD Hc Hcp. rewrite gdir_num in KD.
  destruct (gdir_rotate_cur nmf cn f closed lo mid old pend now (gnames_rn _ _ _ GN) W KD Hc Hcp) as (Ht & f1 & Er & L1 & R).
  split; [exact Ht|]. exists f1. split; [exact Er|]. split; [exact L1|]. cbn zeta in *. rewrite gdir_num. exact R.
Qed.

Lemma gdir_append_r nmf cn f closed lo mid old x :
  gnames nmf cn (length closed) -> fs_wf f -> lookup f cn = Some old ->
  gdir nmf cn f closed lo mid -> gdir nmf cn (append_ino f old x) closed lo mid.
Proof.
  intros GN W Hc KD. rewrite gdir_num in *. exact (gdir_append_cur nmf cn f closed lo mid old x (gnames_rn _ _ _ GN) W Hc KD).
Qed.

Lemma gdir_only_cn nmf cn now :
  let f := {| names := [(cn, 0)]; inodes := [fresh_file now] |} in
  gdir nmf cn f [] 0 0 /\ lookup f cn = Some 0 /\ fs_wf f /\ inode f 0 = fresh_file now.
Proof. cbn zeta. rewrite gdir_num. exact (gdir_only_cur nmf cn now). Qed.
