(* "Every file the logger creates is named as documented": the oracle Oracles/O_Names.name_documented accepts every
   name in the directory, at every point of every history covered by the stream theorems (Numbers - with and without a
   cleanup strategy -, NumbersDirect, Timestamps).  The start-time part is absent in these configurations (fts = false),
   so the start text handed to the oracle is irrelevant.  Hypothesis not_gz: the family's suffix is not "gz" and does not end
   with ".gz" - the oracle takes a trailing ".gz" for the mark of an archive (FamilyFacts.full_infix_as_name_iff: the
   hypothesis is necessary). *)
Require Import FL.Base.Bytes FL.Base.BytesFacts FL.Base.PathName FL.Fs.Fs FL.Names.FileSpec FL.Names.NamesFacts
  FL.Names.SortFacts FL.Names.FamilyFacts FL.Flw.Model FL.Flw.ModelFacts FL.Flw.NumInv FL.Flw.Run FL.Flw.RunFacts
  FL.Flw.NumRun FL.Oracles.O_Flw FL.Oracles.ReaderOrder FL.Oracles.O_Names FL.Flw.NumTheorems FL.Flw.NumListing
  FL.Flw.NumRestart FL.Flw.NumDInv FL.Flw.NumDRun FL.Flw.NumDTheorems FL.Flw.CleanupFacts FL.Flw.NumCleanupNames
  FL.Flw.NumCleanupStep FL.Flw.NumCleanupRun FL.Flw.NumCleanup FL.Flw.TsCal FL.Flw.TsTime FL.Flw.TsMono FL.Flw.TsNames
  FL.Flw.TsInv FL.Flw.TsRun FL.Flw.TsTheorems FL.Flw.TsReader FL.Flw.NumKillRestart FL.Flw.NoPanic FL.Flw.TsParse.
Open Scope nat_scope.

(* ------------------------------------------------------------------ the documented fixed part *)
(* without a start-time part the documented fixed part is the one the code computes, whatever the start text; a present but
   empty discriminant is left out by both *)
Lemma doc_fixed_fixed0 c t : fts (c_spec c) = false -> doc_fixed (c_spec c) t = fixed0 c.
Proof.
  unfold doc_fixed, fixed0, fixed_name_part, under. destruct (c_spec c) as [b d ts s]. cbn [fbase fdisc fts]. intros ->.
  destruct b as [|b0 br], d as [[|d0 dr]|]; cbn [filter join app]; rewrite <- ?app_assoc; reflexivity.
Qed.

(* every name in the directory is accepted by the oracle name_documented (start text []) *)
Definition all_documented (c : config) (f : fs) : Prop := forall n, In n (dir_names f) -> name_documented c [] n = true.

Lemma all_documented_empty c f : names f = [] -> all_documented c f.
Proof. intros H n I. unfold dir_names in I. rewrite H in I. destruct I. Qed.

(* ------------------------------------------------------------------ the infixes *)
Lemma full_infix_rname c i : not_gz c -> full_infix (c_spec c) (fixed0 c) (rname c i) = Some (number_infix (N.of_nat i)).
Proof.
  intros G. unfold rname, nm. apply full_infix_as_name_parts; [apply number_infix_nonempty|].
  unfold not_gz in G. destruct (fsfx (c_spec c)); [exact G | apply number_infix_no_gz].
Qed.

(* an archive is recognised like its original *)
Lemma full_infix_gz sp fixed n : strip_suffix (dot :: gz_sfx) n = None ->
  full_infix sp fixed (n ++ dot :: gz_sfx) = full_infix sp fixed n.
Proof. intros H. unfold full_infix. rewrite strip_suffix_app, H. reflexivity. Qed.

Lemma full_infix_gname c i : not_gz c -> full_infix (c_spec c) (fixed0 c) (gname c i) = Some (number_infix (N.of_nat i)).
Proof.
  intros G. rewrite gname_app. unfold dot_gz. rewrite full_infix_gz; [apply full_infix_rname; exact G|].
  apply rname_no_gz. exact G.
Qed.

Lemma valid_number_infix nam cur i : fmt_of nam = None -> valid_infix nam cur (number_infix i) = true.
Proof.
  intros F. unfold valid_infix. rewrite F, number_infix_digs. rewrite N.eqb_refl, digs_all.
  destruct (Nat.leb_spec 5 (length (digs i))) as [_|H]; [|pose proof (digs_length i); lia].
  cbn [andb]. apply orb_true_r.
Qed.

Lemma valid_cur_infix nam x : valid_infix nam (Some x) x = true.
Proof. unfold valid_infix. rewrite beq_refl. reflexivity. Qed.

(* ------------------------------------------------------------------ Numbers *)
Lemma documented_cname c crit k : c_rot c = Some (crit, NNumbers, k) -> fts (c_spec c) = false -> not_gz c ->
  name_documented c [] (cname c) = true.
Proof.
  intros Hrot Hts G. unfold name_documented. rewrite Hrot, (doc_fixed_fixed0 c [] Hts), (full_infix_cname c G).
  unfold cur_infix_of. rewrite Hrot. apply valid_cur_infix.
Qed.

Lemma documented_rname c crit nam k i : c_rot c = Some (crit, nam, k) -> fmt_of nam = None -> fts (c_spec c) = false -> not_gz c ->
  name_documented c [] (rname c i) = true.
Proof.
  intros Hrot F Hts G. unfold name_documented. rewrite Hrot, (doc_fixed_fixed0 c [] Hts), (full_infix_rname c i G).
  apply valid_number_infix. exact F.
Qed.

Lemma documented_gname c crit nam k i : c_rot c = Some (crit, nam, k) -> fmt_of nam = None -> fts (c_spec c) = false -> not_gz c ->
  name_documented c [] (gname c i) = true.
Proof.
  intros Hrot F Hts G. unfold name_documented. rewrite Hrot, (doc_fixed_fixed0 c [] Hts), (full_infix_gname c i G).
  apply valid_number_infix. exact F.
Qed.

(* at every point of a history: the invariant knows all names of the directory *)
Lemma rel_documented c crit x a : numcfg c crit -> not_gz c -> Rel c crit x a -> all_documented c (wfs (s_w x)).
Proof.
  intros [Hrot [Hts _]] G [_ [_ R]]. destruct a as [[closed cur]|].
  - destruct R as [wr [roll [_ [I _]]]]. intros n In_. apply dir_names_lookup in In_. destruct In_ as [j Lj].
    destruct (ni_only _ _ _ _ I n j Lj) as [->|[i [_ ->]]].
    + exact (documented_cname c crit KNever Hrot Hts G).
    + exact (documented_rname c crit NNumbers KNever i Hrot eq_refl Hts G).
  - destruct R as [_ [_ [Hn _]]]. apply all_documented_empty. exact Hn.
Qed.

(* the directory after  OStart c :: ops  - the writer is still open -, for every history *)
Theorem numbers_names_documented_always c crit t0 off ops :
  numcfg c crit -> not_gz c -> Forall basic_op ops ->
  all_documented c (wfs (s_w (fst (run (sys0 t0 off) (OStart c :: ops))))).
Proof.
  intros Hcfg G Hb. cbn [run]. destruct (step (sys0 t0 off) (OStart c)) as [x0 ob0] eqn:E0.
  pose proof (start_rel c crit t0 off) as R0. rewrite E0 in R0. cbn [fst] in R0.
  pose proof (run_rel c crit Hcfg ops x0 None R0 Hb) as R1. destruct (run x0 ops) as [x1 obs1]. cbn [fst snd] in *.
  exact (rel_documented c crit x1 _ Hcfg G R1).
Qed.

(* the directory that the stopped writer leaves *)
Theorem numbers_names_documented c crit t0 off ops :
  numcfg c crit -> not_gz c -> Forall basic_op ops ->
  all_documented c (wfs (s_w (fst (run (sys0 t0 off) (OStart c :: ops ++ [OStop]))))).
Proof.
  intros Hcfg G Hb. destruct (numbers_stream c crit t0 off ops Hcfg Hb) as [files [Rd _]].
  destruct Hcfg as [Hrot [Hts _]]. unfold reads in Rd. destruct files as [|f0 fr].
  - apply all_documented_empty. exact Rd.
  - destruct Rd as [closed [cur [_ [_ [_ Hon]]]]]. intros n In_. apply dir_names_lookup in In_. destruct In_ as [j Lj].
    destruct (Hon n j Lj) as [->|[i [_ ->]]].
    + exact (documented_cname c crit KNever Hrot Hts G).
    + exact (documented_rname c crit NNumbers KNever i Hrot eq_refl Hts G).
Qed.
Print Assumptions numbers_names_documented.

(* every snapshot taken during the run shows documented names only *)
Definition snap_documented (c : config) (ob : obs) : Prop :=
  match ob with ObsSnap files _ _ => forall e, In e files -> name_documented c [] (fst (fst e)) = true | _ => True end.

Lemma snapshot_documented c w : all_documented c (wfs w) -> snap_documented c (snapshot w).
Proof.
  intros H. unfold snapshot, snap_documented. intros e In_. apply in_map_iff in In_. destruct In_ as [n [<- In_]].
  apply (proj1 (sort_names_in' _ _)) in In_. destruct (file_of (wfs w) n); cbn [fst]; apply H; exact In_.
Qed.

Lemma step_snap x : snd (step x OSnap) = snapshot (s_w x).
Proof.
  unfold step, apply_start. cbn [names_computed andb].
  assert (E : (match s_flw x with Some _ => x | None => x end) = x) by (destruct (s_flw x); reflexivity).
  rewrite E. unfold step_core. destruct (s_flw x) as [s|]; [destruct (is_async s)|]; reflexivity.
Qed.

Lemma step_snap_documented c x o : basic_op o -> obs_ok (snd (step x o)) -> all_documented c (wfs (s_w x)) ->
  snap_documented c (snd (step x o)).
Proof.
  intros Hb K H. pose proof (basic_shape x o Hb K) as Sh. destruct o; try contradiction; cbn [obs_normal] in Sh;
    try (destruct Sh as [r ->]; exact I).
  rewrite step_snap. apply snapshot_documented. exact H.
Qed.

Lemma run_snaps_documented c crit : numcfg c crit -> not_gz c -> forall ops x a, Rel c crit x a -> Forall basic_op ops ->
  Forall (snap_documented c) (snd (run x ops)).
Proof.
  intros Hcfg G ops x a R Hb.
  apply (run_inv (fun y => exists b, Rel c crit y b) basic_op (snap_documented c)); [|eauto|exact Hb].
  intros y o [b Rb] Ho. split.
  - pose proof (step_rel c crit y b o Hcfg Rb Ho) as S. destruct (step y o) as [y1 ob]. eexists. apply S.
  - exact (step_snap_documented c y o Ho (step_rel_ok c crit y b o Hcfg Rb Ho) (rel_documented c crit y b Hcfg G Rb)).
Qed.

Theorem numbers_snapshots_documented c crit t0 off ops :
  numcfg c crit -> not_gz c -> Forall basic_op ops ->
  Forall (snap_documented c) (snd (run (sys0 t0 off) (OStart c :: ops))).
Proof.
  intros Hcfg G Hb. cbn [run]. destruct (step (sys0 t0 off) (OStart c)) as [x0 ob0] eqn:E0.
  pose proof (start_rel c crit t0 off) as R0. rewrite E0 in R0. cbn [fst] in R0.
  assert (K0 : snap_documented c ob0) by (cbn in E0; injection E0 as _ <-; exact I).
  pose proof (run_snaps_documented c crit Hcfg G ops x0 None R0 Hb) as K1. destruct (run x0 ops) as [x1 obs1]. cbn [snd] in *.
  constructor; assumption.
Qed.
Print Assumptions numbers_snapshots_documented.

(* ------------------------------------------------------------------ Numbers with a cleanup strategy: archives *)
(* the archive  <name>.gz  of a rotated file is accepted like the file itself: the oracle removes the trailing ".gz" *)
Lemma relk_documented c crit k x a : numkcfg c crit k -> not_gz c -> RelK c crit k x a -> all_documented c (wfs (s_w x)).
Proof.
  intros (Hrot & Hts & _) G [_ [_ R]]. destruct a as [[closed cur]|].
  - destruct R as [wr [roll [_ [I _]]]]. intros n In_. apply dir_names_lookup in In_. destruct In_ as [j Lj].
    destruct (kd_only _ _ _ _ _ (nk_dir _ _ _ _ _ _ I) n j Lj) as [->|[[i [_ ->]]|[i [_ ->]]]].
    + exact (documented_cname c crit k Hrot Hts G).
    + exact (documented_rname c crit NNumbers k i Hrot eq_refl Hts G).
    + exact (documented_gname c crit NNumbers k i Hrot eq_refl Hts G).
  - destruct R as [_ [_ [Hn _]]]. apply all_documented_empty. exact Hn.
Qed.

Theorem numbers_cleanup_names_documented_always c crit k t0 off ops :
  numkcfg c crit k -> not_gz c -> Forall basic_op ops ->
  kside c k (nclosed (a_run None ops (snd (run (fst (step (sys0 t0 off) (OStart c))) ops)))) ->
  all_documented c (wfs (s_w (fst (run (sys0 t0 off) (OStart c :: ops))))).
Proof.
  intros Hcfg G Hb Hside. cbn [run]. destruct (step (sys0 t0 off) (OStart c)) as [x0 ob0] eqn:E0.
  pose proof (start_rel_k c crit k t0 off) as R0. rewrite E0 in R0. cbn [fst] in R0, Hside.
  pose proof (run_rel_k c crit k Hcfg ops x0 None R0 Hb Hside) as R1. destruct (run x0 ops) as [x1 obs1]. cbn [fst snd] in *.
  exact (relk_documented c crit k x1 _ Hcfg G R1).
Qed.

(* the hypotheses are those of numbers_cleanup_stream, and not_gz c (= sfx_ok (c_spec c), which kside asks for only when
   the strategy has a limit) *)
Theorem numbers_cleanup_names_documented c crit k t0 off ops :
  numkcfg c crit k -> not_gz c -> Forall basic_op ops ->
  kside c k (nclosed (a_run None ops (snd (run (fst (step (sys0 t0 off) (OStart c))) ops)))) ->
  all_documented c (wfs (s_w (fst (run (sys0 t0 off) (OStart c :: ops ++ [OStop]))))).
Proof.
  intros Hcfg G Hb Hside. pose proof (numbers_cleanup_stream c crit k t0 off ops Hcfg Hb) as T. cbv zeta in T.
  destruct (T Hside) as [_ V]. destruct Hcfg as (Hrot & Hts & _).
  destruct (a_run None ops (snd (run (fst (step (sys0 t0 off) (OStart c))) ops))) as [[closed cur]|].
  - destruct V as [KD _]. intros n In_. apply dir_names_lookup in In_. destruct In_ as [j Lj].
    destruct (kd_only _ _ _ _ _ KD n j Lj) as [->|[[i [_ ->]]|[i [_ ->]]]].
    + exact (documented_cname c crit k Hrot Hts G).
    + exact (documented_rname c crit NNumbers k i Hrot eq_refl Hts G).
    + exact (documented_gname c crit NNumbers k i Hrot eq_refl Hts G).
  - apply all_documented_empty. exact V.
Qed.
Print Assumptions numbers_cleanup_names_documented.

(* ------------------------------------------------------------------ NumbersDirect *)
Lemma reld_documented c crit x a : numdcfg c crit -> not_gz c -> RelD c crit x a -> all_documented c (wfs (s_w x)).
Proof.
  intros [Hrot [Hts _]] G [_ [_ R]]. destruct a as [[closed cur]|].
  - destruct R as [wr [roll [_ [I _]]]]. intros n In_. apply dir_names_lookup in In_. destruct In_ as [j Lj].
    destruct (nd_only _ _ _ _ I n j Lj) as [i [_ ->]].
    exact (documented_rname c crit NNumbersDirect KNever i Hrot eq_refl Hts G).
  - destruct R as [_ [_ [Hn _]]]. apply all_documented_empty. exact Hn.
Qed.

Theorem numbersdirect_names_documented_always c crit t0 off ops :
  numdcfg c crit -> not_gz c -> Forall basic_op ops ->
  all_documented c (wfs (s_w (fst (run (sys0 t0 off) (OStart c :: ops))))).
Proof.
  intros Hcfg G Hb. cbn [run]. destruct (step (sys0 t0 off) (OStart c)) as [x0 ob0] eqn:E0.
  pose proof (start_rel_d c crit t0 off) as R0. rewrite E0 in R0. cbn [fst] in R0.
  pose proof (run_rel_d c crit Hcfg ops x0 None R0 Hb) as R1. destruct (run x0 ops) as [x1 obs1]. cbn [fst snd] in *.
  exact (reld_documented c crit x1 _ Hcfg G R1).
Qed.

Theorem numbersdirect_names_documented c crit t0 off ops :
  numdcfg c crit -> not_gz c -> Forall basic_op ops ->
  all_documented c (wfs (s_w (fst (run (sys0 t0 off) (OStart c :: ops ++ [OStop]))))).
Proof.
  intros Hcfg G Hb. destruct (numbersdirect_stream c crit t0 off ops Hcfg Hb) as [files [[_ Hon] _]].
  destruct Hcfg as [Hrot [Hts _]]. intros n In_. apply dir_names_lookup in In_. destruct In_ as [j Lj].
  destruct (Hon n j Lj) as [i [_ ->]]. exact (documented_rname c crit NNumbersDirect KNever i Hrot eq_refl Hts G).
Qed.
Print Assumptions numbersdirect_names_documented.

Lemma run_snaps_documented_d c crit : numdcfg c crit -> not_gz c -> forall ops x a, RelD c crit x a -> Forall basic_op ops ->
  Forall (snap_documented c) (snd (run x ops)).
Proof.
  intros Hcfg G ops x a R Hb.
  apply (run_inv (fun y => exists b, RelD c crit y b) basic_op (snap_documented c)); [|eauto|exact Hb].
  intros y o [b Rb] Ho. split.
  - pose proof (step_rel_d c crit y b o Hcfg Rb Ho) as S. destruct (step y o) as [y1 ob]. eexists. apply S.
  - exact (step_snap_documented c y o Ho (step_rel_d_ok c crit y b o Hcfg Rb Ho) (reld_documented c crit y b Hcfg G Rb)).
Qed.

Theorem numbersdirect_snapshots_documented c crit t0 off ops :
  numdcfg c crit -> not_gz c -> Forall basic_op ops ->
  Forall (snap_documented c) (snd (run (sys0 t0 off) (OStart c :: ops))).
Proof.
  intros Hcfg G Hb. cbn [run]. destruct (step (sys0 t0 off) (OStart c)) as [x0 ob0] eqn:E0.
  pose proof (start_rel_d c crit t0 off) as R0. rewrite E0 in R0. cbn [fst] in R0.
  assert (K0 : snap_documented c ob0) by (cbn in E0; injection E0 as _ <-; exact I).
  pose proof (run_snaps_documented_d c crit Hcfg G ops x0 None R0 Hb) as K1. destruct (run x0 ops) as [x1 obs1]. cbn [snd] in *.
  constructor; assumption.
Qed.

(* ------------------------------------------------------------------ Timestamps *)
(* <time stamp> and <time stamp>.restart-NNNN are valid infixes: the time stamp is read back by the parser (TsParse.parse_tsx),
   the restart counter has at least four digits *)
Lemma valid_ts_infix cur e k : in_years e (fst k) -> valid_infix NTimestamps cur (infix_of e k) = true.
Proof.
  intros H. unfold valid_infix. cbn [fmt_of].
  assert (Hc : contains restart_tag (tsx e (fst k)) = false) by (apply no_dot_no_tag; exact (tsx_no_dot e _ H)).
  unfold infix_of. destruct (snd k) as [|m].
  - unfold split_restart. apply contains_false_iff in Hc. rewrite Hc, (parse_tsx e _ H). apply orb_true_r.
  - unfold split_restart, restart_infix. rewrite (sk_find_tag_app _ _ Hc), sk_firstn_app, (parse_tsx e _ H).
    rewrite sk_skipn_app, skipn_length_app. fold (restart_digits (N.of_nat m)). rewrite restart_digits_all.
    destruct (Nat.leb_spec 4 (length (restart_digits (N.of_nat m)))) as [_|X]; [|pose proof (restart_digits_length (N.of_nat m)); lia].
    apply orb_true_r.
Qed.

Lemma documented_kname c crit k e key : c_rot c = Some (crit, NTimestamps, k) -> fts (c_spec c) = false -> not_gz c ->
  in_years e (fst key) -> name_documented c [] (kname c e key) = true.
Proof.
  intros Hrot Hts G Y. unfold name_documented. rewrite Hrot, (doc_fixed_fixed0 c [] Hts), (full_infix_kname c e key G Y).
  apply valid_ts_infix. exact Y.
Qed.

Lemma documented_cname_ts c crit k : c_rot c = Some (crit, NTimestamps, k) -> fts (c_spec c) = false -> not_gz c ->
  name_documented c [] (cname c) = true.
Proof.
  intros Hrot Hts G. unfold name_documented. rewrite Hrot, (doc_fixed_fixed0 c [] Hts), (full_infix_cname c G).
  unfold cur_infix_of. rewrite Hrot. apply valid_cur_infix.
Qed.

Lemma ts_view_documented c crit e lo hi f keys closed cur : tscfg c crit -> not_gz c -> years_ok e lo hi ->
  (forall k, In k keys -> (lo <= fst k <= hi)%Z) -> ts_view c e f keys closed cur -> all_documented c f.
Proof.
  intros [Hrot [Hts _]] G Y Rg [Hlen [_ [_ [Hon _]]]] n In_. apply dir_names_lookup in In_. destruct In_ as [j Lj].
  destruct (Hon n j Lj) as [->|[i [Hi ->]]].
  - exact (documented_cname_ts c crit KNever Hrot Hts G).
  - apply (documented_kname c crit KNever e _ Hrot Hts G). apply (years_in e lo hi _ Y). apply Rg, nth_In. lia.
Qed.

(* the directory that the stopped writer leaves; hypotheses of timestamps_stream *)
Theorem timestamps_names_documented c crit t0 off ops :
  tscfg c crit -> tag_ok c -> not_gz c -> Forall basic_op ops -> Forall tick_ok ops ->
  (0 <= t0 + ts_e c off)%Z -> (t0 + elapsed ops + ts_e c off < sec_max)%Z -> (N.of_nat (length ops) <= usize_max)%N ->
  all_documented c (wfs (s_w (fst (run (sys0 t0 off) (OStart c :: ops ++ [OStop]))))).
Proof.
  intros Hcfg T G Hb Htk Hlo Hhi Hmax.
  pose proof (timestamps_stream c crit t0 off ops Hcfg T Hb Htk Hlo Hhi Hmax) as TS. cbv zeta in TS.
  destruct TS as [[Hn _]|[keys [cl [cu [V [_ [_ Rg]]]]]]]; [apply all_documented_empty; exact Hn|].
  assert (Y : years_ok (ts_e c off) t0 (t0 + elapsed ops)) by (split; assumption).
  exact (ts_view_documented c crit _ _ _ _ keys cl cu Hcfg G Y Rg V).
Qed.
Print Assumptions timestamps_names_documented.

(* at every point of the history *)
Lemma relt_documented c crit e lo hi n x a : tscfg c crit -> not_gz c -> years_ok e lo hi -> (wnow (s_w x) <= hi)%Z ->
  RelT c e lo n x a -> all_documented c (wfs (s_w x)).
Proof.
  intros [Hrot [Hts _]] G Y Hhi [_ [_ R]]. destruct a as [[closed cur]|].
  - destruct R as [keys [wr [roll [ts [_ [I _]]]]]]. intros m In_. apply dir_names_lookup in In_. destruct In_ as [j Lj].
    destruct (ti_only _ _ _ _ _ _ _ _ I m j Lj) as [->|[i [Hi ->]]].
    + exact (documented_cname_ts c crit KNever Hrot Hts G).
    + apply (documented_kname c crit KNever e _ Hrot Hts G). apply (years_in e lo hi _ Y).
      pose proof (ti_range _ _ _ _ _ _ _ _ I (nth i keys kd)) as Rg. pose proof (ti_ts _ _ _ _ _ _ _ _ I) as Rt.
      pose proof (ti_len _ _ _ _ _ _ _ _ I) as Hl.
      assert (Ik : In (nth i keys kd) keys) by (apply nth_In; lia). specialize (Rg Ik). lia.
  - destruct R as [_ [_ [Hn _]]]. apply all_documented_empty. exact Hn.
Qed.

Theorem timestamps_names_documented_always c crit t0 off ops :
  tscfg c crit -> tag_ok c -> not_gz c -> Forall basic_op ops -> Forall tick_ok ops ->
  (0 <= t0 + ts_e c off)%Z -> (t0 + elapsed ops + ts_e c off < sec_max)%Z -> (N.of_nat (length ops) <= usize_max)%N ->
  all_documented c (wfs (s_w (fst (run (sys0 t0 off) (OStart c :: ops))))).
Proof.
  intros Hcfg T G Hb Htk Hlo Hhi Hmax. cbn [run]. destruct (step (sys0 t0 off) (OStart c)) as [x0 ob0] eqn:E0.
  pose proof (start_rel_ts c t0 off) as R0. rewrite E0 in R0. cbn [fst] in R0.
  assert (W0 : wnow (s_w x0) = t0) by (cbn in E0; injection E0 as <- _; reflexivity).
  assert (Y : years_ok (ts_e c off) t0 (t0 + elapsed ops)) by (split; assumption).
  pose proof (run_rel_ts c crit _ _ _ Hcfg T Y ops x0 None 0 R0 Hb Htk ltac:(lia) ltac:(cbn [Nat.add]; exact Hmax)) as [R1 W1].
  destruct (run x0 ops) as [x1 obs1]. cbn [fst snd] in *.
  apply (relt_documented c crit _ _ _ _ x1 _ Hcfg G Y ltac:(lia) R1).
Qed.
Print Assumptions timestamps_names_documented_always.

Lemma run_snaps_documented_ts c crit e lo hi : tscfg c crit -> tag_ok c -> not_gz c -> years_ok e lo hi ->
  forall ops x a n, RelT c e lo n x a -> Forall basic_op ops -> Forall tick_ok ops ->
  (wnow (s_w x) + elapsed ops <= hi)%Z -> (N.of_nat (n + length ops) <= usize_max)%N ->
  Forall (snap_documented c) (snd (run x ops)).
Proof.
  intros Hcfg T G Y. induction ops as [|o r IH]; intros x a n R Hb Htk Hhi Hmax; [constructor|].
  cbn [run]. inversion Hb as [|o' r' Ho Hr]; subst. inversion Htk as [|o' r' Hto Htr]; subst.
  cbn [elapsed length] in *. pose proof (elapsed_nonneg r Htr) as Er.
  assert (Hdt : (0 <= dt_of o)%Z) by (destruct o; cbn [dt_of tick_ok] in *; lia).
  pose proof (step_rel_ts c crit e lo hi n x a o Hcfg T Y R Ho Hto ltac:(lia) ltac:(lia)) as S.
  pose proof (step_rel_ts_ok c crit e lo hi n x a o Hcfg T Y R Ho Hto ltac:(lia) ltac:(lia)) as K.
  pose proof (step_snap_documented c x o Ho K (relt_documented c crit e lo hi n x a Hcfg G Y ltac:(lia) R)) as D.
  destruct (step x o) as [x1 ob].
  destruct S as [R1 W1]. specialize (IH x1 _ (S n) R1 Hr Htr ltac:(lia) ltac:(lia)). destruct (run x1 r) as [x2 obs].
  cbn [snd] in *. constructor; assumption.
Qed.

Theorem timestamps_snapshots_documented c crit t0 off ops :
  tscfg c crit -> tag_ok c -> not_gz c -> Forall basic_op ops -> Forall tick_ok ops ->
  (0 <= t0 + ts_e c off)%Z -> (t0 + elapsed ops + ts_e c off < sec_max)%Z -> (N.of_nat (length ops) <= usize_max)%N ->
  Forall (snap_documented c) (snd (run (sys0 t0 off) (OStart c :: ops))).
Proof.
  intros Hcfg T G Hb Htk Hlo Hhi Hmax. cbn [run]. destruct (step (sys0 t0 off) (OStart c)) as [x0 ob0] eqn:E0.
  pose proof (start_rel_ts c t0 off) as R0. rewrite E0 in R0. cbn [fst] in R0.
  assert (K0 : snap_documented c ob0) by (cbn in E0; injection E0 as _ <-; exact I).
  assert (W0 : wnow (s_w x0) = t0) by (cbn in E0; injection E0 as <- _; reflexivity).
  assert (Y : years_ok (ts_e c off) t0 (t0 + elapsed ops)) by (split; assumption).
  pose proof (run_snaps_documented_ts c crit _ _ _ Hcfg T G Y ops x0 None 0 R0 Hb Htk ltac:(lia) ltac:(cbn [Nat.add]; exact Hmax)) as K1.
  destruct (run x0 ops) as [x1 obs1]. cbn [snd] in *. constructor; assumption.
Qed.

(* ------------------------------------------------------------------ instances *)
Import String.StringSyntax.
Open Scope string_scope.

Lemma ex_not_gz k : not_gz (NumCleanup.ex_cfg k log_sfx).
Proof. vm_compute. reflexivity. Qed.

Example numbers_names_documented_instance :
  all_documented (NumCleanup.ex_cfg KNever log_sfx) (wfs (s_w (fst (run (sys0 0 0) (OStart (NumCleanup.ex_cfg KNever log_sfx) :: ex_ops ++ [OStop]))))).
Proof.
  apply (numbers_names_documented _ (CSize 3)); [|apply ex_not_gz | exact ex_ops_basic].
  destruct (ex_numkcfg KNever log_sfx) as (A & B & C & D & _). repeat split; assumption.
Qed.

(* with a cleanup strategy: the archive a_r00003.log.gz next to a_r00004.log and a_rCURRENT.log *)
Example numbers_cleanup_names_documented_instance :
  all_documented (NumCleanup.ex_cfg (KLogGz 1 1) log_sfx)
    (wfs (s_w (fst (run (sys0 0 0) (OStart (NumCleanup.ex_cfg (KLogGz 1 1) log_sfx) :: ex_ops ++ [OStop])))))
  /\ sort_names (dir_names (wfs (s_w (fst (run (sys0 0 0) (OStart (NumCleanup.ex_cfg (KLogGz 1 1) log_sfx) :: ex_ops ++ [OStop]))))))
     = [bs "a_r00003.log.gz"; bs "a_r00004.log"; bs "a_rCURRENT.log"].
Proof.
  split; [|vm_compute; reflexivity].
  apply (numbers_cleanup_names_documented _ (CSize 3) (KLogGz 1 1)); [apply ex_numkcfg | apply ex_not_gz | exact ex_ops_basic|].
  exact ex_sfx_ok.
Qed.

Example numbersdirect_names_documented_instance :
  all_documented exd_c (wfs (s_w (fst (run (sys0 0 0) (OStart exd_c :: exd_ops ++ [OStop]))))).
Proof. apply (numbersdirect_names_documented exd_c (CSize 3)); [exact exd_c_ok | vm_compute; reflexivity | exact exd_ops_basic]. Qed.

Example timestamps_names_documented_instance :
  all_documented ext_c (wfs (s_w (fst (run (sys0 0 0) (OStart ext_c :: ext_ops ++ [OStop])))))
  /\ name_documented ext_c [] (bs "app_r1970-01-01_00-00-00.restart-0002.log") = true.
Proof.
  split; [|vm_compute; reflexivity].
  apply (timestamps_names_documented ext_c (CSize 100) 0 0 ext_ops ext_c_ok ext_c_tag_ok ext_c_not_gz ext_ops_basic ext_ops_ticks).
  - change (0 <= 0)%Z. lia.
  - change (1 < sec_max)%Z. unfold sec_max. lia.
  - vm_compute. discriminate.
Qed.

(* not_gz is needed: for a family whose own suffix is "gz" the oracle takes ".gz" for the mark of an archive, does not find
   the suffix any more and rejects every name that the writer creates *)
Example gz_suffix_not_documented :
  let c := NumRestart.ex_cfg (ex_sp "gz") false (CSize 100) None in
  snap_of (fst (run (sys0 0 0) (OStart c :: [OWrite (bs "a"); OTrigger; OWrite (bs "b")] ++ [OStop])))
  = [ (bs "app_r00000.gz", 0%N, bs "a"); (bs "app_rCURRENT.gz", 0%N, bs "b") ]
  /\ name_documented c [] (bs "app_r00000.gz") = false /\ name_documented c [] (bs "app_rCURRENT.gz") = false
  /\ ~ not_gz c.
Proof. vm_compute. repeat split; try reflexivity. intros H; discriminate H. Qed.

(* names that are not documented are rejected: a number with four digits, a foreign infix, a restart counter with three digits *)
Example undocumented_rejected :
  name_documented (NumCleanup.ex_cfg KNever log_sfx) [] (bs "a_r0001.log") = false
  /\ name_documented (NumCleanup.ex_cfg KNever log_sfx) [] (bs "a_x.log") = false
  /\ name_documented ext_c [] (bs "app_r1970-01-01_00-00-00.restart-002.log") = false
  /\ name_documented ext_c [] (bs "app_r1970-13-01_00-00-00.log") = false.
Proof. vm_compute. repeat split; reflexivity. Qed.

Print Assumptions numbers_names_documented_always.
Print Assumptions numbers_cleanup_names_documented_always.
Print Assumptions numbersdirect_names_documented_always.
Print Assumptions numbersdirect_snapshots_documented.
Print Assumptions timestamps_snapshots_documented.
