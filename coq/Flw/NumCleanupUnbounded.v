(* Cleanup under the Numbers and NumbersDirect namings WITHOUT A BOUND ON THE NUMBER OF ROTATIONS.

   The directory listing that the cleanup works on is sorted by the key of FileSpec.sort_key and reversed.  Since the repair
   of the listing order the key carries the NUMBER behind the last "_r" of the name - in a name without any "_r" (no
   basename, no discriminant) behind the leading "r" - (length of the digits without leading zeros, then the digits), so
   r100000 is newer than r99999, and the theorems of NumCleanup*.v / NumDCleanup*.v hold for every history and every fixed
   name part; the only side condition left is sfx_ok (the suffix is not "gz" and does not end with ".gz").  Here:
     - the side conditions kside / dside spelled out (kside_iff, dside_iff): they do not depend on the number of closed files;
     - numbers_cleanup_unbounded, numbersdirect_cleanup_unbounded: the end-to-end theorems with sfx_ok as only side condition;
     - examples (hypotheses satisfiable, conclusion computed), with and without a fixed name part. *)
Require Import FL.Base.Bytes FL.Fs.Fs FL.Names.FileSpec FL.Flw.Model FL.Flw.NumInv FL.Flw.Run FL.Flw.NumRun
  FL.Flw.CleanupFacts FL.Flw.NumCleanupNames FL.Flw.NumCleanupStep FL.Flw.NumCleanupRun FL.Flw.NumCleanup
  FL.Flw.NumDCleanupStep FL.Flw.NumDCleanupRun FL.Flw.NumDCleanup FL.Flw.NumKillRestart FL.Flw.NoPanic.
From Coq Require Import ZifyN ZifyNat ZifyBool.
Open Scope nat_scope.

(* ------------------------------------------------------------------ the side conditions *)
Lemma kside_iff c k L : kside c k L <-> (klim k <> None -> sfx_ok (c_spec c)).
Proof. unfold kside. destruct (klim k); split; intros H; try exact I; try (intros _; exact H); [apply H; discriminate | congruence]. Qed.

Lemma dside_iff c k L : dside c k L <-> (klimd k <> None -> sfx_ok (c_spec c)).
Proof. unfold dside. destruct (klimd k); split; intros H; try exact I; try (intros _; exact H); [apply H; discriminate | congruence]. Qed.

(* ------------------------------------------------------------------ Numbers *)
(* every history, however many rotations: in the end the directory holds the current file, the newest n closed files as
   they were closed and the next m as archives, and nothing else; what they hold is what was written *)
Theorem numbers_cleanup_unbounded c crit k t0 off ops :
  numkcfg c crit k -> Forall basic_op ops ->
  sfx_ok (c_spec c) ->
  let x0 := fst (step (sys0 t0 off) (OStart c)) in
  let a := a_run None ops (snd (run x0 ops)) in
  let r := run (sys0 t0 off) (OStart c :: ops ++ [OStop]) in
  let f := wfs (s_w (fst r)) in
  flat a = written ops
  /\ match a with
     | None => names f = []
     | Some (closed, cur) => kreader_view c f closed cur (k_lo k (length closed)) (k_mid k (length closed))
     end
  /\ Forall obs_ok (snd r).
Proof.
  intros Hcfg Hb Hs x0 a r f.
  destruct (numbers_cleanup_stream c crit k t0 off ops Hcfg Hb (kside_sfx c k _ Hs)) as [A B].
  split; [exact A|]. split; [exact B|].
  exact (numbers_cleanup_no_panic c crit k t0 off ops Hcfg Hb (kside_sfx c k _ Hs)).
Qed.

(* the next cleanup would see the files in the right order: newest first, whatever the indices are *)
Theorem numbers_listing_unbounded c f off lo mid L :
  sfx_ok (c_spec c) -> dir_shape c f lo mid L ->
  list_log_gz off (c_spec c) (fixed0 c) f IFNum = Some (listing c lo mid L).
Proof. intros Hs DS. apply list_log_gz_numbers; [exact Hs | exact DS]. Qed.

(* ------------------------------------------------------------------ NumbersDirect *)
(* every history, however many rotations: in the end the directory holds the file being written r<L>, the newest n - 1
   closed files as they were closed and the next m as archives, and nothing else; the file being written is never
   removed or compressed; no operation fails or panics *)
Theorem numbersdirect_cleanup_unbounded c crit k t0 off ops :
  numdkcfg c crit k -> Forall basic_op ops ->
  sfx_ok (c_spec c) ->
  let x0 := fst (step (sys0 t0 off) (OStart c)) in
  let a := a_run None ops (snd (run x0 ops)) in
  let r := run (sys0 t0 off) (OStart c :: ops ++ [OStop]) in
  let f := wfs (s_w (fst r)) in
  flat a = written ops
  /\ match a with
     | None => names f = []
     | Some (closed, cur) => dkreader_view c f closed cur (d_lo k (length closed)) (d_mid k (length closed))
     end
  /\ Forall obs_ok (snd r).
Proof.
  intros Hcfg Hb Hs x0 a r f.
  exact (numbersdirect_cleanup_stream c crit k t0 off ops Hcfg Hb (dside_sfx c k _ Hs)).
Qed.

Print Assumptions numbers_cleanup_unbounded.
Print Assumptions numbers_listing_unbounded.
Print Assumptions numbersdirect_cleanup_unbounded.

(* ------------------------------------------------------------------ examples *)
Import String.StringSyntax.
Local Open Scope string_scope.

(* Numbers, KLogGz 1 1, six records and five rotations: the hypotheses hold, the conclusion is the view (lo, mid) = (3, 4) *)
Example numbers_cleanup_unbounded_instance :
  let c := NumCleanup.ex_cfg (KLogGz 1 1) log_sfx in
  let r := run (sys0 0 0) (OStart c :: ex_ops ++ [OStop]) in
  fixed0 c = bs "a" /\
  kreader_view c (wfs (s_w (fst r))) (map (fun i => bs "abcd" ++ [N.of_nat i]) (seq 0 5)) (bs "abcd" ++ [5%N]) 3 4
  /\ Forall obs_ok (snd r).
Proof.
  intros c r. split; [reflexivity|].
  pose proof (numbers_cleanup_unbounded c (CSize 3) (KLogGz 1 1) 0 0 ex_ops (ex_numkcfg _ _) ex_ops_basic ex_sfx_ok) as T.
  cbv zeta in T.
  assert (Ea : a_run None ex_ops (snd (run (fst (step (sys0 0 0) (OStart c))) ex_ops))
               = Some (map (fun i => bs "abcd" ++ [N.of_nat i]) (seq 0 5), bs "abcd" ++ [5%N])) by (vm_compute; reflexivity).
  rewrite Ea in T. destruct T as (_ & V & K). split; [exact V | exact K].
Qed.

(* NumbersDirect, KLogGz 2 2: the view (lo, mid) = (2, 4) with L = 5 *)
Example numbersdirect_cleanup_unbounded_instance :
  let c := exd_kcfg (KLogGz 2 2) log_sfx in
  let r := run (sys0 0 0) (OStart c :: ex_ops ++ [OStop]) in
  dkreader_view c (wfs (s_w (fst r))) exd_closed (rec5 5) 2 4 /\ Forall obs_ok (snd r).
Proof.
  intros c r.
  pose proof (numbersdirect_cleanup_unbounded (exd_kcfg (KLogGz 2 2) log_sfx) (CSize 3) (KLogGz 2 2) 0 0 ex_ops (exd_numdkcfg _ _) ex_ops_basic (exd_sfx_ok _)) as T.
  cbv zeta in T. rewrite exd_view in T. destruct T as (_ & V & K). split; [exact V | exact K].
Qed.

(* beyond five digits (where the listing order was wrong before its repair): a directory with the closed files 99999
   (archive), 100000, 100001 (plain) and rCURRENT is listed newest first, by the theorem and by computation *)
Definition big3_fs : fs :=
  mkfile (mkfile (mkfile (mkfile empty_fs (gname big_c (N.to_nat 99999)) (bs "x") 1 10)
                         (rname big_c (N.to_nat 100001)) (bs "z") 0 30)
                 (rname big_c (N.to_nat 100000)) (bs "y") 0 20)
         (cname big_c) (bs "cur") 0 40.
Example numbers_listing_unbounded_instance :
  list_log_gz 0 (c_spec big_c) (fixed0 big_c) big3_fs IFNum
  = Some [bs "a_r100001.log"; bs "a_r100000.log"; bs "a_r99999.log.gz"]
  /\ listing big_c (N.to_nat 99999) (N.to_nat 100000) (N.to_nat 100002) = [bs "a_r100001.log"; bs "a_r100000.log"; bs "a_r99999.log.gz"].
Proof. vm_compute. split; reflexivity. Qed.

(* without basename and discriminant: the same history under the names r<number>.log; the view is the same *)
Definition nofix_k (k : cleanup) : config :=
  {| c_spec := {| fbase := []; fdisc := None; fts := false; fsfx := log_sfx |};
     c_append := false; c_cap := None; c_rot := Some (CSize 3, NNumbers, k); c_utc := false; c_symlink := false;
     c_bg := false; c_async := false; c_start := None |}.
Example numbers_cleanup_unbounded_instance_empty_fixed :
  let c := nofix_k (KLogGz 1 1) in
  let r := run (sys0 0 0) (OStart c :: ex_ops ++ [OStop]) in
  fixed0 c = [] /\
  kreader_view c (wfs (s_w (fst r))) (map (fun i => bs "abcd" ++ [N.of_nat i]) (seq 0 5)) (bs "abcd" ++ [5%N]) 3 4
  /\ Forall obs_ok (snd r)
  /\ sort_names (dir_names (wfs (s_w (fst r)))) = [bs "r00003.log.gz"; bs "r00004.log"; bs "rCURRENT.log"].
Proof.
  intros c r. split; [reflexivity|].
  pose proof (numbers_cleanup_unbounded (nofix_k (KLogGz 1 1)) (CSize 3) (KLogGz 1 1) 0 0 ex_ops ltac:(repeat split) ex_ops_basic
                ltac:(vm_compute; reflexivity)) as T.
  cbv zeta in T.
  assert (Ea : a_run None ex_ops (snd (run (fst (step (sys0 0 0) (OStart (nofix_k (KLogGz 1 1))))) ex_ops))
               = Some (map (fun i => bs "abcd" ++ [N.of_nat i]) (seq 0 5), bs "abcd" ++ [5%N])) by (vm_compute; reflexivity).
  rewrite Ea in T. destruct T as (_ & V & K). split; [exact V|]. split; [exact K|]. vm_compute. reflexivity.
Qed.

(* the same without fixed name part: archive 99999, plain 100000 and 100001, rCURRENT *)
Definition big3_nofix_fs : fs :=
  mkfile (mkfile (mkfile (mkfile empty_fs (gname nofix_c (N.to_nat 99999)) (bs "x") 1 10)
                         (rname nofix_c (N.to_nat 100001)) (bs "z") 0 30)
                 (rname nofix_c (N.to_nat 100000)) (bs "y") 0 20)
         (cname nofix_c) (bs "cur") 0 40.
Example numbers_listing_unbounded_instance_empty_fixed :
  list_log_gz 0 (c_spec nofix_c) (fixed0 nofix_c) big3_nofix_fs IFNum
  = Some [bs "r100001.log"; bs "r100000.log"; bs "r99999.log.gz"]
  /\ listing nofix_c (N.to_nat 99999) (N.to_nat 100000) (N.to_nat 100002) = [bs "r100001.log"; bs "r100000.log"; bs "r99999.log.gz"].
Proof. vm_compute. split; reflexivity. Qed.
