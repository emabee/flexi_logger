(* Numbers naming with cleanup, part 1: the names r<i> and r<i>.gz and what the directory listing of the cleanup
   (list_log_gz with the number filter) returns on a directory that holds rCURRENT, the plain files r<i> for
   mid <= i < L and the archives r<i>.gz for lo <= i < mid:  NEWEST FIRST the plain files by descending index, then
   the archives by descending index.
   Hypothesis found necessary: the suffix of the family is not "gz" and does not end with ".gz" (sfx_ok; otherwise plain
   files are taken for archives: sfx_gz_counterexample, sfx_log_gz_counterexample in NumCleanup.v).
   There is no bound on the indices: the sort key of the listing reads the number behind the last "_r" of the name (with an
   empty fixed name part: behind the leading "r") and compares it numerically. *)
Require Import FL.Base.Bytes FL.Base.BytesFacts FL.Base.PathName FL.Fs.Fs FL.Names.FileSpec FL.Names.NamesFacts
  FL.Names.SortFacts FL.Names.FamilyFacts FL.Flw.Model FL.Flw.NumInv FL.Flw.NumListing FL.Flw.CleanupFacts.
From Coq Require Import ZifyN ZifyNat ZifyBool Permutation Sorted.
Open Scope nat_scope.

(* ------------------------------------------------------------------ the hypothesis on the suffix *)
Definition sfx_ok (sp : file_spec) : Prop :=
  match fsfx sp with Some s => strip_suffix (dot :: gz_sfx) (dot :: s) = None | None => True end.

Definition gname (c : config) (i : nat) : bytes := gz_name (rname c i).

Lemma rname_as_name c i : rname c i = as_name (c_spec c) (fixed0 c) (Some (number_infix (N.of_nat i))).
Proof. reflexivity. Qed.

Lemma number_infix_no_gz i : strip_suffix (dot :: gz_sfx) (number_infix i) = None.
Proof.
  rewrite number_infix_digs. change (r_char :: digs i) with ([r_char] ++ digs i). apply sk_gz_digits.
  - destruct (digs_cons i) as (a & b & r & E & _). rewrite E. discriminate.
  - apply digs_all.
Qed.

Lemma rname_no_gz c i : sfx_ok (c_spec c) -> strip_suffix (dot :: gz_sfx) (rname c i) = None.
Proof.
  intros H. rewrite rname_as_name. apply as_name_gz_parts; [apply number_infix_nonempty|].
  unfold sfx_ok in H. destruct (fsfx (c_spec c)); [exact H | apply number_infix_no_gz].
Qed.

Lemma ext_is_gz_suffix n : ext_is n gz_sfx = true -> exists st, n = st ++ dot_gz.
Proof.
  intros H. apply ext_is_iff in H. pose proof (split_at_last_dot_spec n) as S. rewrite H in S.
  exists (file_stem n). exact S.
Qed.

Lemma rname_not_gz c i : sfx_ok (c_spec c) -> ext_is (rname c i) gz_sfx = false.
Proof.
  intros H. destruct (ext_is (rname c i) gz_sfx) eqn:E; [exfalso | reflexivity].
  apply ext_is_gz_suffix in E. destruct E as [st E]. pose proof (rname_no_gz c i H) as X.
  rewrite E in X. unfold dot_gz in X. rewrite strip_suffix_app in X. discriminate.
Qed.

Lemma rname_nonempty c i : rname c i <> [].
Proof. rewrite rname_shape. destruct (under (fixed0 c)); discriminate. Qed.

Lemma gname_app c i : gname c i = rname c i ++ dot_gz.
Proof. apply gz_name_app. Qed.
Lemma gname_is_gz c i : ext_is (gname c i) gz_sfx = true.
Proof. apply ext_is_gz_name, rname_nonempty. Qed.
Lemma gname_strip c i : set_extension (gname c i) [] = rname c i.
Proof. apply strip_gz_name, rname_nonempty. Qed.
Lemma gname_inj c i j : gname c i = gname c j -> i = j.
Proof. intros H. apply gz_name_inj, rname_inj in H. exact H. Qed.

Lemma gname_not_cname c i : gname c i <> cname c.
Proof.
  rewrite gname_app, rname_shape, cname_shape, <- !app_assoc. intros H. apply app_inv_head in H.
  symmetry in H. destruct (digs_cons (N.of_nat i)) as (a & b & r & E & Ha). rewrite E in H. unfold cur_infix in H. cbn [app] in H.
  injection H as H _. subst a. discriminate.
Qed.

(* ------------------------------------------------------------------ the family test *)
Lemma qf_rname_gz off c i : sfx_ok (c_spec c) ->
  qf off (fsfx (c_spec c)) (fixed0 c) IFNum (Some gz_sfx) (rname c i) = false.
Proof.
  intros H. unfold qf, infix_candidate. rewrite (rname_no_gz c i H). reflexivity.
Qed.

Lemma sfx_ok_not_gz sp s : sfx_ok sp -> fsfx sp = Some s -> beq s gz_sfx = false.
Proof.
  unfold sfx_ok. intros H E. rewrite E in H. apply beq_neq. intros ->.
  change (dot :: gz_sfx) with ([] ++ dot :: gz_sfx) in H at 2. rewrite strip_suffix_app in H. discriminate.
Qed.

Lemma qf_gname_gz off c i : sfx_ok (c_spec c) ->
  qf off (fsfx (c_spec c)) (fixed0 c) IFNum (Some gz_sfx) (gname c i) = true.
Proof.
  intros H. unfold qf, infix_candidate. rewrite gname_app. unfold dot_gz. rewrite strip_suffix_app.
  assert (E : (match fsfx (c_spec c) with
               | Some s => if beq gz_sfx [103%N; 122%N] && negb (beq s [103%N; 122%N]) then strip_suffix (dot :: s) (rname c i) else Some (rname c i)
               | None => Some (rname c i) end) = Some (under (fixed0 c) ++ r_char :: digs (N.of_nat i))).
  { rewrite rname_shape. unfold sfxs. destruct (fsfx (c_spec c)) as [s|] eqn:Es.
    - change [103%N; 122%N] with gz_sfx. rewrite (sfx_ok_not_gz _ s H Es). cbn [beq gz_sfx N.eqb Pos.eqb andb negb].
      rewrite app_assoc. apply strip_suffix_app.
    - rewrite app_nil_r. reflexivity. }
  rewrite E. clear E.
  assert (Hd : ~ In dot (r_char :: digs (N.of_nat i))) by (rewrite <- number_infix_digs; apply number_infix_no_dot).
  assert (E : cand_core (fixed0 c) (under (fixed0 c) ++ r_char :: digs (N.of_nat i)) = Some (r_char :: digs (N.of_nat i))).
  { apply cand_core_spec. exists []. split; [left; reflexivity|]. split; [exact Hd|]. rewrite app_nil_r. split; [discriminate | reflexivity]. }
  unfold cand_core in E. rewrite E. rewrite <- number_infix_digs. apply filter_num_infix.
Qed.

(* an archive is not listed among the plain files *)
Lemma first_dot_unique (a b x y : bytes) : ~ In dot a -> ~ In dot b -> a ++ dot :: x = b ++ dot :: y -> a = b /\ x = y.
Proof.
  revert b. induction a as [|p a IH]; intros [|q b] Ha Hb H; cbn [app] in H.
  - injection H as ->. auto.
  - injection H as <- _. exfalso. apply Hb. left; reflexivity.
  - injection H as -> _. exfalso. apply Ha. left; reflexivity.
  - injection H as -> H. destruct (IH b) as [-> ->]; auto.
    + intros X. apply Ha. right; exact X.
    + intros X. apply Hb. right; exact X.
Qed.

Lemma strip_sfx_gz_none (s Y : bytes) : strip_suffix (dot :: gz_sfx) (dot :: s) = None ->
  strip_suffix (dot :: s) (Y ++ (dot :: s) ++ dot :: gz_sfx) = None.
Proof.
  rewrite !strip_suffix_none_iff. rewrite !rev_app_distr. cbn [rev gz_sfx app]. rewrite <- !app_assoc.
  destruct (rev s) as [|p [|q [|e t]]]; cbn [app is_prefix]; intros H.
  - reflexivity.
  - destruct (p =? 122)%N; cbn [andb]; reflexivity.
  - rewrite (N.eqb_sym p), (N.eqb_sym q). exact H.
  - rewrite (N.eqb_sym p), (N.eqb_sym q), (N.eqb_sym e).
    destruct (122 =? p)%N; cbn [andb] in *; [|reflexivity].
    destruct (103 =? q)%N; cbn [andb] in *; [|reflexivity]. rewrite andb_true_r in H. rewrite H. reflexivity.
Qed.

Lemma qf_gname_plain off c i : sfx_ok (c_spec c) ->
  qf off (fsfx (c_spec c)) (fixed0 c) IFNum (fsfx (c_spec c)) (gname c i) = false.
Proof.
  intros H. unfold qf. rewrite infix_candidate_plain, gname_app, rname_shape. unfold sfxs, sfx_ok in *.
  destruct (fsfx (c_spec c)) as [s|].
  - unfold dot_gz. rewrite <- !app_assoc, (app_assoc (under (fixed0 c))).
    change (dot :: s ++ dot :: gz_sfx) with ((dot :: s) ++ dot :: gz_sfx).
    rewrite (strip_sfx_gz_none s _ H). reflexivity.
  - rewrite app_nil_r.
    destruct (cand_core (fixed0 c) ((under (fixed0 c) ++ r_char :: digs (N.of_nat i)) ++ dot_gz)) as [infix|] eqn:E; [exfalso | reflexivity].
    apply cand_core_spec in E. destruct E as (rs & Hrs & Hnd & _ & E).
    rewrite <- app_assoc in E. apply app_inv_head in E.
    assert (Hd : ~ In dot (r_char :: digs (N.of_nat i))) by (rewrite <- number_infix_digs; apply number_infix_no_dot).
    destruct Hrs as [->|(d & -> & _ & _)].
    + rewrite app_nil_r in E. apply Hnd. rewrite <- E. apply in_or_app. right. left. reflexivity.
    + unfold dot_gz in E. apply first_dot_unique in E; [|exact Hd | exact Hnd]. destruct E as [_ E]. discriminate E.
Qed.

(* ------------------------------------------------------------------ the sort key *)
Lemma find_sub_prefix pat : forall s ix, find_sub pat s = Some ix -> is_prefix pat (skipn ix s) = true.
Proof.
  induction s as [|x s IH]; intros ix H; cbn [find_sub] in H.
  - destruct (is_prefix pat []) eqn:E; [injection H as <-; exact E | discriminate].
  - destruct (is_prefix pat (x :: s)) eqn:E; [injection H as <-; exact E|].
    destruct (find_sub pat s) as [j|] eqn:Ej; [|discriminate]. injection H as <-. cbn [skipn]. apply IH. reflexivity.
Qed.

Lemma last_nondigit_unique (u v a b : bytes) (x y : N) :
  all_digits a = true -> all_digits b = true -> is_digit x = false -> is_digit y = false ->
  u ++ x :: a = v ++ y :: b -> x = y.
Proof.
  intros Ha Hb Hx Hy. revert v. induction u as [|p u IH]; intros [|q v] H; cbn [app] in H.
  - injection H as H _. exact H.
  - injection H as _ H. exfalso. assert (I : In y a) by (rewrite H; apply in_or_app; right; left; reflexivity).
    rewrite (all_digits_in _ _ Ha I) in Hy. discriminate.
  - injection H as _ H. exfalso. assert (I : In x b) by (rewrite <- H; apply in_or_app; right; left; reflexivity).
    rewrite (all_digits_in _ _ Hb I) in Hx. discriminate.
  - injection H as _ H. apply (IH v H).
Qed.

Lemma stem_key_number (F : bytes) i : stem_key (F ++ r_char :: digs i) = (F ++ r_char :: digs i, None).
Proof. apply (stem_key_tail _ F r_char (digs i)); [reflexivity | apply digs_all | reflexivity | discriminate]. Qed.

Definition number_stem (c : config) (i : nat) : bytes := under (fixed0 c) ++ r_char :: digs (N.of_nat i).

Lemma rname_with_suffix c i : rname c i = with_suffix (c_spec c) (number_stem c i).
Proof. unfold rname, nm. rewrite as_name_some by apply number_infix_nonempty. reflexivity. Qed.

(* the key of a number name: no restart counter; the main part and the number as main_key splits them *)
Lemma sort_key_number c i (g : bool) : sfx_ok (c_spec c) ->
  sort_key (fsfx (c_spec c)) (add_gz g (rname c i)) = plain_key (number_stem c i).
Proof.
  intros H. rewrite sort_key_stem, rname_with_suffix, sk_stem_with_suffix.
  - unfold full_key, plain_key, number_stem. rewrite stem_key_number. reflexivity.
  - rewrite <- rname_with_suffix. apply rname_no_gz. exact H.
Qed.

(* the part up to the "r" of the infix, and the number without leading zeros *)
Definition number_key (i : nat) : option (nat * bytes) :=
  Some (length (drop_zeros (digs (N.of_nat i))), drop_zeros (digs (N.of_nat i))).

Lemma digs_nonempty i : digs i <> [].
Proof. destruct (digs_cons i) as (a & b & r & E & _). rewrite E. discriminate. Qed.

Lemma main_key_number_stem c i : main_key (number_stem c i) = (under (fixed0 c) ++ [r_char], number_key i).
Proof. unfold number_stem, number_key. apply main_key_number_under; [apply digs_nonempty | apply digs_all]. Qed.

Lemma add_gz_gname c i : add_gz true (rname c i) = gname c i.
Proof. rewrite gname_app. reflexivity. Qed.

Lemma digs_len5 i : (i < 100000)%N -> length (digs i) = 5.
Proof.
  intros H. unfold digs, pad_left. rewrite app_length, repeat_length.
  pose proof (dec_length_mono i 99999 ltac:(lia)) as M. change (length (dec 99999)) with 5 in M. lia.
Qed.

Lemma lex_lt_app_head p : forall x y, lex_lt (p ++ x) (p ++ y) = lex_lt x y.
Proof.
  induction p as [|a p IH]; intros x y; cbn [app lex_lt]; [reflexivity|].
  rewrite N.ltb_irrefl, N.eqb_refl, IH. reflexivity.
Qed.

Lemma number_stem_lt c i j : i < j -> (N.of_nat j < 100000)%N ->
  lex_le (number_stem c i) (number_stem c j) = true /\ beq (number_stem c i) (number_stem c j) = false.
Proof.
  intros Hij Hj. unfold number_stem, lex_le.
  change (r_char :: digs (N.of_nat j)) with ([r_char] ++ digs (N.of_nat j)).
  change (r_char :: digs (N.of_nat i)) with ([r_char] ++ digs (N.of_nat i)).
  rewrite !app_assoc, lex_lt_app_head.
  rewrite lex_lt_value; [| apply digs_all | apply digs_all | rewrite !digs_len5 by lia; reflexivity].
  rewrite !digs_value. split; [lia|]. apply beq_neq. intros E. apply app_inv_head in E.
  apply (f_equal dec_value) in E. rewrite !digs_value in E. lia.
Qed.

(* names of the family (plain or archive, mixed) are ordered by their index: by the NUMBER, no bound on the index *)
Lemma key_le_number_any c i j (g1 g2 : bool) : sfx_ok (c_spec c) -> i < j ->
  key_le (fsfx (c_spec c)) (add_gz g1 (rname c i)) (add_gz g2 (rname c j)) = true.
Proof.
  intros H Hij. pose proof (sort_key_number c i g1 H) as Ei. pose proof (sort_key_number c j g2 H) as Ej.
  unfold plain_key in Ei, Ej. rewrite (main_key_number_stem c i) in Ei. rewrite (main_key_number_stem c j) in Ej.
  cbn [fst snd] in Ei, Ej.
  destruct (rkey_digits_lt (drop_zeros (digs (N.of_nat i))) (drop_zeros (digs (N.of_nat j)))) as [L12 [_ Q]];
    try (apply drop_zeros_all_digits, digs_all); try (intros r; apply drop_zeros_head);
    [rewrite !drop_zeros_value, !digs_value; lia|].
  rewrite (key_le_by_nkey _ _ _ _ _ _ _ _ Ei Ej Q). exact L12.
Qed.

Lemma key_le_number c i j (g1 g2 : bool) : sfx_ok (c_spec c) -> i < j -> (N.of_nat j < 100000)%N ->
  key_le (fsfx (c_spec c)) (add_gz g1 (rname c i)) (add_gz g2 (rname c j)) = true.
Proof. intros H Hij _. apply key_le_number_any; [exact H | exact Hij]. Qed.

(* ------------------------------------------------------------------ lists *)
Lemma filter_rev' {A} (p : A -> bool) l : filter p (rev l) = rev (filter p l).
Proof.
  induction l as [|x l IH]; cbn [rev filter]; [reflexivity|]. rewrite filter_app, IH. cbn [filter].
  destruct (p x); cbn [rev]; [reflexivity | rewrite app_nil_r; reflexivity].
Qed.

Lemma StronglySorted_filter {A} (R : A -> A -> Prop) (p : A -> bool) l : StronglySorted R l -> StronglySorted R (filter p l).
Proof.
  induction 1 as [|x l Hs IH Hx]; cbn [filter]; [constructor|]. destruct (p x); [|exact IH].
  constructor; [exact IH|]. rewrite Forall_forall in *. intros y Hy. apply filter_In in Hy. apply Hx, Hy.
Qed.

Lemma sorted_unique {A} (R : A -> A -> Prop) : (forall x y, R x y -> R y x -> x = y) ->
  forall l1 l2, StronglySorted R l1 -> StronglySorted R l2 -> NoDup l1 -> NoDup l2 ->
  (forall x, In x l1 <-> In x l2) -> l1 = l2.
Proof.
  intros Anti. induction l1 as [|x l1 IH]; intros [|y l2] S1 S2 N1 N2 E.
  - reflexivity.
  - exfalso. apply (proj2 (E y)). left; reflexivity.
  - exfalso. apply (proj1 (E x)). left; reflexivity.
  - inversion S1 as [|? ? S1' F1]; subst. inversion S2 as [|? ? S2' F2]; subst.
    inversion N1 as [|? ? Nx N1']; subst. inversion N2 as [|? ? Ny N2']; subst.
    rewrite Forall_forall in F1, F2.
    assert (Exy : x = y).
    { destruct (proj1 (E x) (or_introl eq_refl)) as [->|Hx]; [reflexivity|].
      destruct (proj2 (E y) (or_introl eq_refl)) as [->|Hy]; [reflexivity|].
      apply Anti; [apply F1, Hy | apply F2, Hx]. }
    subst y. f_equal. apply IH; auto. intros z. split; intros Hz.
    + destruct (proj1 (E z) (or_intror Hz)) as [->|H]; [contradiction | exact H].
    + destruct (proj2 (E z) (or_intror Hz)) as [->|H]; [contradiction | exact H].
Qed.

Lemma StronglySorted_map_seq {A} (R : A -> A -> Prop) (g : nat -> A) : forall cnt a,
  (forall i j, a <= i -> i < j -> j < a + cnt -> R (g i) (g j)) -> StronglySorted R (map g (seq a cnt)).
Proof.
  induction cnt as [|cnt IH]; intros a H; cbn [seq map]; [constructor|]. constructor.
  - apply IH. intros i j Hi Hij Hj. apply H; lia.
  - rewrite Forall_forall. intros y Hy. apply in_map_iff in Hy. destruct Hy as (j & <- & Hj). apply in_seq in Hj.
    apply H; lia.
Qed.

Lemma nth_error_rev_map_seq {A} (g : nat -> A) : forall cnt a k,
  nth_error (rev (map g (seq a cnt))) k = if k <? cnt then Some (g (a + cnt - 1 - k)) else None.
Proof.
  induction cnt as [|cnt IH]; intros a k.
  - destruct k; reflexivity.
  - rewrite seq_S, map_app, rev_app_distr. cbn [map rev app]. destruct k as [|k]; cbn [nth_error].
    + change (0 <? S cnt) with true. cbv iota. f_equal. f_equal. lia.
    + rewrite IH. change (S k <? S cnt) with (k <? cnt). destruct (k <? cnt); [|reflexivity]. f_equal. f_equal. lia.
Qed.

Lemma existsb_false_notin (x : bytes) l : ~ In x l -> existsb (beq x) l = false.
Proof.
  intros H. destruct (existsb (beq x) l) eqn:E; [|reflexivity]. exfalso. apply existsb_exists in E.
  destruct E as (y & Hy & B). apply beq_eq in B. subst y. exact (H Hy).
Qed.

(* nmf i is the name of the plain file with index i (index = position in the order of writing), gzf nmf i the name of its
   archive; cn is one more name that may exist (rCURRENT).  What the listing and the cleanup need of the first L names: *)
Definition gzf (nmf : nat -> bytes) (i : nat) : bytes := gz_name (nmf i).

Record gnames (nmf : nat -> bytes) (cn : bytes) (L : nat) : Prop := {
  gn_inj : forall i j, i < L -> j < L -> nmf i = nmf j -> i = j;
  gn_ne : forall i, i < L -> nmf i <> [];
  gn_ng : forall i, i < L -> ext_is (nmf i) gz_sfx = false;
  gn_cn : forall i, i < L -> nmf i <> cn /\ gzf nmf i <> cn }.

(* what a rotation needs of them: no two of these names, archive names and cn are the same *)
Record rnames (nmf : nat -> bytes) (cn : bytes) (L : nat) : Prop := {
  rn_inj : forall i j, i < L -> j < L -> nmf i = nmf j -> i = j;
  rn_cn : forall i, i < L -> nmf i <> cn /\ gzf nmf i <> cn;
  rn_gz : forall i j, i < L -> j < L -> gzf nmf i <> nmf j }.

Section Names.
Variables (nmf : nat -> bytes) (cn : bytes) (L : nat).
Hypothesis GN : gnames nmf cn L.

Lemma gzf_is_gz i : i < L -> ext_is (gzf nmf i) gz_sfx = true.
Proof. intros Hi. apply ext_is_gz_name. apply (gn_ne _ _ _ GN). exact Hi. Qed.
Lemma gzf_strip i : i < L -> set_extension (gzf nmf i) [] = nmf i.
Proof. intros Hi. apply strip_gz_name. apply (gn_ne _ _ _ GN). exact Hi. Qed.
Lemma gzf_inj i j : i < L -> j < L -> gzf nmf i = gzf nmf j -> i = j.
Proof. intros Hi Hj E. apply gz_name_inj in E. apply (gn_inj _ _ _ GN); assumption. Qed.
Lemma gzf_not_nmf i j : i < L -> j < L -> gzf nmf i <> nmf j.
Proof. intros Hi Hj E. pose proof (gzf_is_gz i Hi) as G. rewrite E, (gn_ng _ _ _ GN) in G by exact Hj. discriminate. Qed.
Lemma gnames_rnames : rnames nmf cn L.
Proof. constructor; [apply GN | apply GN | exact gzf_not_nmf]. Qed.
End Names.

Definition glisting (nmf : nat -> bytes) (lo mid L : nat) : list bytes :=
  rev (map nmf (seq mid (L - mid))) ++ rev (map (gzf nmf) (seq lo (mid - lo))).
Definition gentry (nmf : nat -> bytes) (mid i : nat) : bytes := if mid <=? i then nmf i else gzf nmf i.

Lemma glisting_nth nmf lo mid L k : lo <= mid <= L ->
  nth_error (glisting nmf lo mid L) k = if k <? L - lo then Some (gentry nmf mid (L - 1 - k)) else None.
Proof.
  intros H. unfold glisting, gentry.
  destruct (Nat.ltb_spec k (L - mid)) as [H1|H1].
  - rewrite nth_error_app1 by (rewrite rev_length, map_length, seq_length; exact H1).
    rewrite nth_error_rev_map_seq. destruct (Nat.ltb_spec k (L - mid)); [|lia]. destruct (Nat.ltb_spec k (L - lo)); [|lia].
    destruct (Nat.leb_spec mid (L - 1 - k)); [|lia]. do 2 f_equal. lia.
  - rewrite nth_error_app2 by (rewrite rev_length, map_length, seq_length; exact H1).
    rewrite rev_length, map_length, seq_length, nth_error_rev_map_seq.
    destruct (Nat.ltb_spec (k - (L - mid)) (mid - lo)), (Nat.ltb_spec k (L - lo)); try lia; [|reflexivity].
    destruct (Nat.leb_spec mid (L - 1 - k)); [lia|]. do 2 f_equal. lia.
Qed.

Lemma glisting_in nmf lo mid L x : lo <= mid <= L ->
  In x (glisting nmf lo mid L) <-> (exists i, mid <= i < L /\ x = nmf i) \/ (exists i, lo <= i < mid /\ x = gzf nmf i).
Proof.
  intros H. unfold glisting. rewrite in_app_iff, <- !in_rev, !in_map_iff. split.
  - intros [(i & <- & Hi)|(i & <- & Hi)]; apply in_seq in Hi; [left | right]; exists i; split; auto; lia.
  - intros [(i & Hi & ->)|(i & Hi & ->)]; [left | right]; exists i; split; auto; apply in_seq; lia.
Qed.

Lemma glisting_nth_inv nmf lo mid L k x : lo <= mid <= L ->
  nth_error (glisting nmf lo mid L) k = Some x -> k < L - lo /\ x = gentry nmf mid (L - 1 - k).
Proof.
  intros H E. rewrite glisting_nth in E by exact H. destruct (Nat.ltb_spec k (L - lo)); [|discriminate].
  injection E as <-. auto.
Qed.
Lemma glisting_nth_of nmf lo mid L i : lo <= mid <= L -> lo <= i < L ->
  nth_error (glisting nmf lo mid L) (L - 1 - i) = Some (gentry nmf mid i).
Proof.
  intros H Hi. rewrite glisting_nth by exact H. destruct (Nat.ltb_spec (L - 1 - i) (L - lo)); [|lia].
  do 2 f_equal. lia.
Qed.
Lemma gentry_plain nmf mid i : mid <= i -> gentry nmf mid i = nmf i.
Proof. intros H. unfold gentry. destruct (Nat.leb_spec mid i); [reflexivity | lia]. Qed.
Lemma gentry_arch nmf mid i : i < mid -> gentry nmf mid i = gzf nmf i.
Proof. intros H. unfold gentry. destruct (Nat.leb_spec mid i); [lia | reflexivity]. Qed.

Section Listing.
Variables (nmf : nat -> bytes) (cn : bytes) (L : nat).
Hypothesis GN : gnames nmf cn L.

Lemma gentry_ext mid i : i < L -> ext_is (gentry nmf mid i) gz_sfx = negb (mid <=? i).
Proof.
  intros Hi. unfold gentry. destruct (mid <=? i); [apply (gn_ng _ _ _ GN); exact Hi | apply (gzf_is_gz _ _ _ GN); exact Hi].
Qed.

Lemma gentry_inj mid i j : i < L -> j < L -> gentry nmf mid i = gentry nmf mid j -> i = j.
Proof.
  intros Hi Hj. unfold gentry. destruct (mid <=? i), (mid <=? j); intros E.
  - exact (gn_inj _ _ _ GN _ _ Hi Hj E).
  - symmetry in E. exfalso. exact (gzf_not_nmf _ _ _ GN _ _ Hj Hi E).
  - exfalso. exact (gzf_not_nmf _ _ _ GN _ _ Hi Hj E).
  - exact (gzf_inj _ _ _ GN _ _ Hi Hj E).
Qed.

Lemma glisting_nodup lo mid : lo <= mid <= L -> NoDup (glisting nmf lo mid L).
Proof.
  intros Hle. apply NoDup_nth_error. intros i j Hi E.
  assert (Len : length (glisting nmf lo mid L) = L - lo).
  { unfold glisting. rewrite app_length, !rev_length, !map_length, !seq_length. lia. }
  rewrite !glisting_nth in E by exact Hle. rewrite Len in Hi.
  destruct (Nat.ltb_spec i (L - lo)); [|lia]. destruct (Nat.ltb_spec j (L - lo)); [|discriminate].
  injection E as E. apply gentry_inj in E; lia.
Qed.

Lemma glisting_no_redundant lo mid : lo <= mid <= L -> redundant_gz (glisting nmf lo mid L) = [].
Proof.
  intros Hle. unfold redundant_gz. apply filter_all_false. intros x Hx.
  pose proof Hx as Hx'. apply glisting_in in Hx'; [|exact Hle]. destruct Hx' as [(i & Hi & ->)|(i & Hi & ->)].
  - rewrite (gn_ng _ _ _ GN) by lia. reflexivity.
  - rewrite (gzf_strip _ _ _ GN), (gzf_is_gz _ _ _ GN) by lia. cbn [andb]. apply existsb_false_notin. intros I.
    apply glisting_in in I; [|exact Hle]. destruct I as [(j & Hj & E)|(j & Hj & E)].
    + apply (gn_inj _ _ _ GN) in E; lia.
    + symmetry in E. apply (gzf_not_nmf _ _ _ GN) in E; [exact E | lia | lia].
Qed.
End Listing.

(* the closed files of a directory: plain for mid <= i < L, archives for lo <= i < mid, nothing else but rCURRENT *)
Record dir_shape (c : config) (f : fs) (lo mid L : nat) : Prop := {
  ds_le : lo <= mid <= L;
  ds_nodup : NoDup (dir_names f);
  ds_plain : forall i, mid <= i < L -> exists j, lookup f (rname c i) = Some j /\ fdir (inode f j) = false;
  ds_arch : forall i, lo <= i < mid -> exists j, lookup f (gname c i) = Some j /\ fdir (inode f j) = false;
  ds_only : forall n j, lookup f n = Some j ->
      n = cname c \/ (exists i, mid <= i < L /\ n = rname c i) \/ (exists i, lo <= i < mid /\ n = gname c i) }.

Definition listing (c : config) (lo mid L : nat) : list bytes :=
  rev (map (rname c) (seq mid (L - mid))) ++ rev (map (gname c) (seq lo (mid - lo))).

(* the listing of the cleanup, for any directory and filter: the plain files that pass the filter, then the archives that
   pass it, each part newest first.  pl and ar are any lists that hold exactly those names in ascending order of the keys *)
Lemma list_log_gz_sorted off sp fixed f flt pl ar :
  NoDup (dir_names f) ->
  StronglySorted (key_rel (fsfx sp)) pl -> StronglySorted (key_rel (fsfx sp)) ar -> NoDup pl -> NoDup ar ->
  (forall x, In x pl <-> ((exists j, lookup f x = Some j) /\ is_reg_file f x = true /\ is_prefix fixed x = true)
                         /\ qf off (fsfx sp) fixed flt (fsfx sp) x = true) ->
  (forall x, In x ar <-> ((exists j, lookup f x = Some j) /\ is_reg_file f x = true /\ is_prefix fixed x = true)
                         /\ qf off (fsfx sp) fixed flt (Some gz_sfx) x = true) ->
  list_log_gz off sp fixed f flt = Some (rev pl ++ rev ar).
Proof.
  intros Hnd Sp Sa Np Na Ip Ia.
  set (S := sort_by_key (fsfx sp) (filter (fun n => is_reg_file f n && is_prefix fixed n) (dir_names f))).
  assert (S_in : forall n, In n S <-> (exists j, lookup f n = Some j) /\ is_reg_file f n = true /\ is_prefix fixed n = true).
  { intros n. unfold S. rewrite In_sort_by_key, filter_In, andb_true_iff, dir_names_lookup. tauto. }
  assert (S_nodup : NoDup S).
  { eapply Permutation_NoDup; [apply Permutation_sym, sort_by_key_perm|]. apply NoDup_filter, Hnd. }
  (* a sorted list without repetitions is determined by its members *)
  assert (Part : forall o l, StronglySorted (key_rel (fsfx sp)) l -> NoDup l ->
            (forall x, In x l <-> ((exists j, lookup f x = Some j) /\ is_reg_file f x = true /\ is_prefix fixed x = true)
                                  /\ qf off (fsfx sp) fixed flt o x = true) ->
            filter (qf off (fsfx sp) fixed flt o) S = l).
  { intros o l Sl Nl Il. apply (sorted_unique (key_rel (fsfx sp))).
    - intros x y. apply key_le_antisym.
    - apply StronglySorted_filter, sort_by_key_strongly_sorted.
    - exact Sl.
    - apply NoDup_filter, S_nodup.
    - exact Nl.
    - intros x. rewrite filter_In, S_in. symmetry. apply Il. }
  unfold list_log_gz, existing_rot, sel_log_gz. cbn [sel_plain sel_gz sel_rcur sel_custom].
  rewrite !filter_files_total. cbn [app_opt]. rewrite !app_nil_r. unfold related_files.
  fold S. rewrite !filter_rev', (Part _ pl Sp Np Ip), (Part _ ar Sa Na Ia). reflexivity.
Qed.

Theorem list_log_gz_numbers c f off lo mid L : sfx_ok (c_spec c) -> dir_shape c f lo mid L ->
  list_log_gz off (c_spec c) (fixed0 c) f IFNum = Some (listing c lo mid L).
Proof.
  intros Hsfx DS. unfold listing. apply list_log_gz_sorted.
  - apply DS.
  - apply StronglySorted_map_seq. intros i j Hi Hij Hj. apply (key_le_number_any c i j false false Hsfx Hij).
  - apply StronglySorted_map_seq. intros i j Hi Hij Hj. unfold key_rel. rewrite <- !add_gz_gname.
    apply (key_le_number_any c i j true true Hsfx Hij).
  - apply FinFun.Injective_map_NoDup; [intros i j E; exact (rname_inj _ _ _ E) | apply seq_NoDup].
  - apply FinFun.Injective_map_NoDup; [intros i j E; exact (gname_inj _ _ _ E) | apply seq_NoDup].
  - intros x. rewrite in_map_iff. split.
    + intros (i & <- & Hi). apply in_seq in Hi. destruct (ds_plain _ _ _ _ _ DS i ltac:(lia)) as (j & Lj & Dj).
      split; [split; [eauto | split]|].
      * unfold is_reg_file, file_of. rewrite Lj, Dj. reflexivity.
      * rewrite rname_shape. apply is_prefix_under.
      * apply qf_rname.
    + intros [[[j Lj] _] Q]. destruct (ds_only _ _ _ _ _ DS x j Lj) as [->|[(i & Hi & ->)|(i & Hi & ->)]].
      * rewrite qf_cname in Q. discriminate.
      * exists i. split; [reflexivity | apply in_seq; lia].
      * rewrite qf_gname_plain in Q by exact Hsfx. discriminate.
  - intros x. rewrite in_map_iff. split.
    + intros (i & <- & Hi). apply in_seq in Hi. destruct (ds_arch _ _ _ _ _ DS i ltac:(lia)) as (j & Lj & Dj).
      split; [split; [eauto | split]|].
      * unfold is_reg_file, file_of. rewrite Lj, Dj. reflexivity.
      * rewrite gname_app, rname_shape, <- app_assoc. apply is_prefix_under.
      * apply qf_gname_gz. exact Hsfx.
    + intros [[[j Lj] _] Q]. destruct (ds_only _ _ _ _ _ DS x j Lj) as [->|[(i & Hi & ->)|(i & Hi & ->)]].
      * rewrite qf_cname in Q. discriminate.
      * rewrite qf_rname_gz in Q by exact Hsfx. discriminate.
      * exists i. split; [reflexivity | apply in_seq; lia].
Qed.

Definition entry (c : config) (mid i : nat) : bytes := if mid <=? i then rname c i else gname c i.

Lemma gnames_numbers c L : sfx_ok (c_spec c) -> gnames (rname c) (cname c) L.
Proof.
  intros H. constructor.
  - intros i j _ _. apply rname_inj.
  - intros i _. apply rname_nonempty.
  - intros i _. apply rname_not_gz. exact H.
  - intros i _. split; [apply rname_not_cname | apply gname_not_cname].
Qed.

(* listing c = glisting (rname c) and entry c = gentry (rname c), by definition *)
Lemma listing_in c lo mid L x : lo <= mid <= L ->
  In x (listing c lo mid L) <-> (exists i, mid <= i < L /\ x = rname c i) \/ (exists i, lo <= i < mid /\ x = gname c i).
Proof. exact (glisting_in (rname c) lo mid L x). Qed.

Lemma listing_no_empty c lo mid L : lo <= mid <= L -> ~ In [] (listing c lo mid L).
Proof.
  intros H I. apply listing_in in I; [|exact H]. destruct I as [(i & _ & E)|(i & _ & E)].
  - symmetry in E. exact (rname_nonempty _ _ E).
  - rewrite gname_app in E. symmetry in E. apply app_eq_nil in E. destruct E as [E _]. exact (rname_nonempty _ _ E).
Qed.

(* no archive has its original listed too: remove_redundant has nothing to do *)
Lemma listing_no_redundant c lo mid L : sfx_ok (c_spec c) -> lo <= mid <= L -> redundant_gz (listing c lo mid L) = [].
Proof. intros H. exact (glisting_no_redundant (rname c) (cname c) L (gnames_numbers c L H) lo mid). Qed.

Print Assumptions list_log_gz_numbers.
