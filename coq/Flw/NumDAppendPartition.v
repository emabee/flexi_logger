(* NumbersDirect naming with a size criterion: the greedy partition over SEQUENCES of runs on one directory.
   The files r00000 .. r(n) found are continued as under Numbers naming (files_after of NumAppendPartition.v):
   - with append the newest numbered file is continued and its content counts for the limit from the first write on;
   - without append the next number is started (at the first write) and the run partitions as from a fresh start;
   - a run that never writes leaves the directory as it is. *)
Require Import FL.Base.Bytes FL.Fs.Fs FL.Names.FileSpec FL.Flw.Model FL.Flw.ModelFacts FL.Flw.NumInv FL.Flw.Run
  FL.Flw.RunFacts FL.Flw.NumRun FL.Flw.NumListing FL.Oracles.O_Flw FL.Flw.NumTheorems FL.Flw.NumRestart
  FL.Flw.NumAppendPartition FL.Flw.NumDInv FL.Flw.NumDRun FL.Flw.NumDTheorems FL.Flw.NumDRestart.
Import String.StringSyntax.
Open Scope nat_scope.

(* ================================================================== sequences of runs *)
(* C08 for any number of runs on one directory under NumbersDirect naming *)
Theorem numbersdirect_runs_partition sp t0 off rs :
  (N.of_nat (length (runs_ops rs)) <= u32_max)%N ->
  Forall (fun r => c_spec (fst r) = sp /\ (exists m, numdcfg (fst r) (CSize m)) /\ Forall basic_op (snd r)) rs ->
  forall c, c_spec c = sp ->
    direct_view c (wfs (s_w (fst (run (sys0 t0 off) (runs_ops rs))))) (runs_files [] rs).
Proof. exact (lruns_partition _ _ _ _ numd_layout _ _ numd_restart sp (sys0 t0 off) rs (idle_d0 _ t0 off)). Qed.
Print Assumptions numbersdirect_runs_partition.

Theorem numbersdirect_runs_rotates_iff sp t0 off rs c m ops i o b :
  (N.of_nat (length (runs_ops rs)) <= u32_max)%N ->
  Forall (fun r => c_spec (fst r) = sp /\ (exists m, numdcfg (fst r) (CSize m)) /\ Forall basic_op (snd r)) rs ->
  c_spec c = sp -> numdcfg c (CSize m) -> Forall basic_op ops ->
  nth_error ops i = Some o -> (o = OWrite b \/ o = OPlain b) ->
  nth_error (snd (run (fst (run (sys0 t0 off) (runs_ops rs))) (OStart c :: ops))) (S i)
  = Some (ObsRes 0 (m <? N.of_nat (length (cur_before m (start_of (runs_files [] rs) (c_append c)) (firstn i ops))))%N).
Proof. exact (lruns_rotates_iff _ _ _ _ numd_layout _ _ numd_restart sp (sys0 t0 off) rs c m ops i o b (idle_d0 _ t0 off)). Qed.
Print Assumptions numbersdirect_runs_rotates_iff.

(* ================================================================== two runs *)
Lemma first_run_idle_d c1 m1 t0 off ops1 :
  numdcfg c1 (CSize m1) -> Forall basic_op ops1 ->
  exists v1, IdleD c1 (fst (run (sys0 t0 off) (OStart c1 :: ops1 ++ [OStop]))) v1
    /\ files_of v1 = expected_files m1 None (items false ops1).
Proof. exact (lfirst_run_idle _ _ _ _ numd_layout _ _ numd_restart c1 m1 (sys0 t0 off) ops1 (idle_d0 c1 t0 off)). Qed.

(* Two runs, the second one appending: the newest numbered file (the last file of run 1) is continued, and its
   content counts for the limit from the first write on. *)
Theorem numbersdirect_append_partition c1 c2 m1 m2 t0 off ops1 ops2 closed1 cur1 :
  numdcfg c1 (CSize m1) -> numdcfg c2 (CSize m2) -> c_spec c1 = c_spec c2 -> c_append c2 = true ->
  Forall basic_op ops1 -> Forall basic_op ops2 ->
  expected_files m1 None (items false ops1) = closed1 ++ [cur1] -> (N.of_nat (length closed1) <= u32_max)%N ->
  direct_view c2 (wfs (s_w (fst (run (sys0 t0 off) (OStart c1 :: ops1 ++ [OStop] ++ OStart c2 :: ops2 ++ [OStop])))))
              (closed1 ++ expected_files m2 (Some cur1) (items false ops2)).
Proof. exact (lappend_partition _ _ _ _ numd_layout _ _ numd_restart c1 c2 m1 m2 (sys0 t0 off) ops1 ops2 closed1 cur1 (idle_d0 c1 t0 off)). Qed.
Print Assumptions numbersdirect_append_partition.

Theorem numbersdirect_append_rotates_iff c1 c2 m1 m2 t0 off ops1 ops2 closed1 cur1 i o b :
  numdcfg c1 (CSize m1) -> numdcfg c2 (CSize m2) -> c_spec c1 = c_spec c2 -> c_append c2 = true ->
  Forall basic_op ops1 -> Forall basic_op ops2 ->
  expected_files m1 None (items false ops1) = closed1 ++ [cur1] -> (N.of_nat (length closed1) <= u32_max)%N ->
  nth_error ops2 i = Some o -> (o = OWrite b \/ o = OPlain b) ->
  nth_error (snd (run (fst (run (sys0 t0 off) (OStart c1 :: ops1 ++ [OStop]))) (OStart c2 :: ops2))) (S i)
  = Some (ObsRes 0 (m2 <? N.of_nat (length (cur_of (s_run m2 (Some ([], cur1)) (from_first_write (firstn i ops2))))))%N).
Proof. exact (lappend_rotates_iff _ _ _ _ numd_layout _ _ numd_restart c1 c2 m1 m2 (sys0 t0 off) ops1 ops2 closed1 cur1 i o b (idle_d0 c1 t0 off)). Qed.
Print Assumptions numbersdirect_append_rotates_iff.

(* without append the next number is started: the files of run 1 stay, run 2 partitions as from a fresh start *)
Theorem numbersdirect_noappend_partition c1 c2 m1 m2 t0 off ops1 ops2 :
  numdcfg c1 (CSize m1) -> numdcfg c2 (CSize m2) -> c_spec c1 = c_spec c2 -> c_append c2 = false ->
  Forall basic_op ops1 -> Forall basic_op ops2 ->
  (N.of_nat (length (expected_files m1 None (items false ops1))) <= u32_max)%N ->
  direct_view c2 (wfs (s_w (fst (run (sys0 t0 off) (OStart c1 :: ops1 ++ [OStop] ++ OStart c2 :: ops2 ++ [OStop])))))
              (expected_files m1 None (items false ops1) ++ expected_files m2 None (items false ops2)).
Proof. exact (lnoappend_partition _ _ _ _ numd_layout _ _ numd_restart c1 c2 m1 m2 (sys0 t0 off) ops1 ops2 (idle_d0 c1 t0 off)). Qed.
Print Assumptions numbersdirect_noappend_partition.

Theorem numbersdirect_noappend_rotates_iff c1 c2 m1 m2 t0 off ops1 ops2 i o b :
  numdcfg c1 (CSize m1) -> numdcfg c2 (CSize m2) -> c_spec c1 = c_spec c2 -> c_append c2 = false ->
  Forall basic_op ops1 -> Forall basic_op ops2 ->
  (N.of_nat (length (expected_files m1 None (items false ops1))) <= u32_max)%N ->
  nth_error ops2 i = Some o -> (o = OWrite b \/ o = OPlain b) ->
  nth_error (snd (run (fst (run (sys0 t0 off) (OStart c1 :: ops1 ++ [OStop]))) (OStart c2 :: ops2))) (S i)
  = Some (ObsRes 0 (m2 <? N.of_nat (length (cur_of (s_run m2 None (firstn i ops2)))))%N).
Proof. exact (lnoappend_rotates_iff _ _ _ _ numd_layout _ _ numd_restart c1 c2 m1 m2 (sys0 t0 off) ops1 ops2 i o b (idle_d0 c1 t0 off)). Qed.
Print Assumptions numbersdirect_noappend_rotates_iff.

(* ================================================================== examples *)
Open Scope string_scope.
Definition apd_c1 : config := exd_cfg (ex_sp "log") false (CSize 3) None.
Definition apd_c2 : config := exd_cfg (ex_sp "log") true (CSize 5) (Some 3%nat).
Definition apd_c2n : config := exd_cfg (ex_sp "log") false (CSize 5) (Some 3%nat).

(* run 1 leaves r00000 = abcd, r00001 = ef, r00002 = ghij; the appending run 2 (limit 5) continues r00002: "kl" goes
   into it, "mn" rotates because the 4 bytes found count *)
Example direct_append_partition_instance :
  direct_view apd_c2 (wfs (s_w (fst (run (sys0 0 0) (OStart apd_c1 :: ap_ops1 ++ [OStop] ++ OStart apd_c2 :: ap_ops2 ++ [OStop])))))
              ([bs "abcd"; bs "ef"] ++ [bs "ghijkl"; bs "mnop"]).
Proof.
  change [bs "ghijkl"; bs "mnop"] with (expected_files 5 (Some (bs "ghij")) (items false ap_ops2)).
  apply (numbersdirect_append_partition apd_c1 apd_c2 3 5 0 0 ap_ops1 ap_ops2 [bs "abcd"; bs "ef"] (bs "ghij")).
  - apply exd_cfg_ok. reflexivity.
  - apply exd_cfg_ok. reflexivity.
  - reflexivity.
  - reflexivity.
  - exact ap_ops1_basic.
  - exact ap_ops2_basic.
  - vm_compute. reflexivity.
  - vm_compute. discriminate.
Qed.

Example direct_append_partition_dir :
  snap_of (fst (run (sys0 0 0) (OStart apd_c1 :: ap_ops1 ++ [OStop] ++ OStart apd_c2 :: ap_ops2 ++ [OStop])))
  = [ (bs "app_r00000.log", 0%N, bs "abcd"); (bs "app_r00001.log", 0%N, bs "ef"); (bs "app_r00002.log", 0%N, bs "ghijkl");
      (bs "app_r00003.log", 0%N, bs "mnop") ]
  /\ List.map rot_of (snd (run (fst (run (sys0 0 0) (OStart apd_c1 :: ap_ops1 ++ [OStop]))) (OStart apd_c2 :: ap_ops2)))
     = [false; false; false; false; true; false].
Proof. vm_compute. split; reflexivity. Qed.

Example direct_noappend_partition_dir :
  snap_of (fst (run (sys0 0 0) (OStart apd_c1 :: ap_ops1 ++ [OStop] ++ OStart apd_c2n :: ap_ops2 ++ [OStop])))
  = [ (bs "app_r00000.log", 0%N, bs "abcd"); (bs "app_r00001.log", 0%N, bs "ef"); (bs "app_r00002.log", 0%N, bs "ghij");
      (bs "app_r00003.log", 0%N, bs "klmnop") ]
  /\ expected_files 3 None (items false ap_ops1) ++ expected_files 5 None (items false ap_ops2)
     = [bs "abcd"; bs "ef"; bs "ghij"; bs "klmnop"].
Proof. vm_compute. split; reflexivity. Qed.

(* a trigger before the first write of the appending run does nothing here either: the content found counts *)
Example direct_append_trigger_before_first_write :
  nth_error (snd (run (fst (run (sys0 0 0) (OStart apd_c1 :: ap_ops1 ++ [OStop])))
                      (OStart (exd_cfg (ex_sp "log") true (CSize 3) (Some 3%nat)) :: ap_ops2t))) 2
  = Some (ObsRes 0 true)
  /\ (3 <? N.of_nat (length (cur_of (s_run 3 (Some ([], bs "ghij")) (firstn 1 ap_ops2t)))))%N = false.
Proof. vm_compute. split; reflexivity. Qed.

(* ================================================================== any start state *)
Theorem numbersdirect_partition_any_start c m x v ops :
  numdcfg c (CSize m) -> (N.of_nat (length (closed_of v)) <= u32_max)%N -> Forall basic_op ops -> IdleD c x v ->
  direct_view c (wfs (s_w (fst (run x (OStart c :: ops ++ [OStop]))))) (files_after (files_of v) (c_append c) m ops).
Proof. exact (lpartition_any_start _ _ _ _ numd_layout _ _ numd_restart c m x v ops). Qed.
Print Assumptions numbersdirect_partition_any_start.

Theorem numbersdirect_rotates_iff_any_start c m x v ops i o b :
  numdcfg c (CSize m) -> (N.of_nat (length (closed_of v)) <= u32_max)%N -> Forall basic_op ops -> IdleD c x v ->
  nth_error ops i = Some o -> (o = OWrite b \/ o = OPlain b) ->
  nth_error (snd (run x (OStart c :: ops))) (S i)
  = Some (ObsRes 0 (m <? N.of_nat (length (cur_before m (start_of (files_of v) (c_append c)) (firstn i ops))))%N).
Proof. exact (lone_run_flags _ _ _ _ numd_layout _ _ numd_restart c m x v ops i o b). Qed.
Print Assumptions numbersdirect_rotates_iff_any_start.

Example direct_any_start_instance :
  exists v, IdleD apd_c2 (fst (run (sys0 0 0) (OStart apd_c1 :: ap_ops1 ++ [OStop]))) v
            /\ files_of v = [bs "abcd"; bs "ef"; bs "ghij"]
            /\ files_after (files_of v) (c_append apd_c2) 5 ap_ops2 = [bs "abcd"; bs "ef"; bs "ghijkl"; bs "mnop"].
Proof.
  destruct (first_run_idle_d apd_c1 3 0 0 ap_ops1 (exd_cfg_ok (ex_sp "log") false (CSize 3) None eq_refl) ap_ops1_basic) as [v [Id F]].
  exists v. split; [apply (idle_d_spec apd_c1 apd_c2); [reflexivity | exact Id]|].
  rewrite F. split; vm_compute; reflexivity.
Qed.
