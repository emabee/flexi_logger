(* C19 with rotation, TimestampsDirect naming (r<time stamp>[.restart-NNNN]; no rCURRENT): the executable SPECIFICATION of
   what a FileLogWriter with TimestampsDirect naming, size criterion, direct mode (no buffer), no cleanup, synchronous,
   makes of a list of records - each preceded by an advance of the clock - when the file-system calls fail as an
   arbitrary fault oracle says; and what the specification implies.  The refinement proof (the model `run` does exactly
   this) is in FaultTsd.v.

   Also here, for any step function with a clock (used by FaultTsSpec.v too): the records with their clock advances, and
   Section Records: such a step function gives a member of FaultRotSpec.spec.

   What the model (and the code) does, read off write_buffer / mount_next / initialize:

   (iii) a failing step of the INITIALISATION ([append: the listing read_dir of latest_timestamp_file], the two read_dir
         of the collision-free infix, the open/create of the file, [append: the metadata call]): initialize returns Err,
         write_buffer returns Err BEFORE anything is written, the record is LOST, the handle reports EWrite, the state
         stays `Initial`: the next record initialises again from the beginning.  With append, a file that was created
         before the failing metadata call stays (empty) and is CONTINUED by the next initialisation - under its own time
         stamp, also when the clock has advanced.
   (i)   a rotation renames nothing: the infix of the present second is made collision-free (TWO read_dir calls), then the
         file is opened/created.  When one of these three calls fails, mount_next returns Err, the writer is still the
         old one on its old file (only the time stamp in the naming state has been set to the present second; it is never
         read again); write_buffer reports ELogFile and WRITES THE RECORD WITH THE OLD WRITER into the (over-full) old
         file.  Nothing is lost, the state is not poisoned, there is always a file.  The size counter still exceeds the
         limit, so the NEXT record tries the rotation again - with the second of THAT record.  No name is skipped.
   (iv)  the WRITE itself fails: write_buffer returns Err, the size counter is not increased, the record is LOST,
         the handle reports EWrite; the writer state is as before.
   Every oracle entry `true` that is consumed yields exactly one reported error (ELogFile: rotation step, record
   kept; EWrite: record lost).  No log call panics or returns an error. *)
Require Import FL.Base.Bytes FL.Fs.Fs FL.Flw.Model FL.Flw.Run FL.Flw.NumRun FL.Flw.TsNames FL.Flw.TsInv FL.Flw.FaultFacts
  FL.Flw.FaultRotSpec.
From Coq Require Import ZifyN ZifyNat ZifyBool.
Open Scope nat_scope.

(* ------------------------------------------------------------------ the specification *)
(* the abstract state: directory and writer.  A file is named by its key (second of its start, position among the files
   of that second: 0 = <ts>, S n = <ts>.restart-<n>) *)
Inductive tst :=
| TInit (created : option Z)  (* writer not initialised; the directory is empty / holds the empty file with the key (t, 0) *)
| TAct (keys : list key) (closed : list bytes) (d : bytes).
                              (* length keys = S (length closed): the closed files, and the file the writer writes into,
                                 which holds d and has the last key *)

Definition t_keys (st : tst) : list key :=
  match st with TInit None => [] | TInit (Some t) => [(t, 0)] | TAct keys _ _ => keys end.
Definition t_conts (st : tst) : list bytes :=
  match st with TInit None => [] | TInit (Some _) => [[]] | TAct _ closed d => closed ++ [d] end.
Definition t_closed (st : tst) : list bytes := match st with TInit _ => [] | TAct _ closed _ => closed end.
(* what a reader finds: the files in the order of their keys *)
Definition tstream (st : tst) : bytes := concat (t_conts st).

(* an initialised writer; now: the present second *)
Definition t_active (m : N) (now : Z) (keys : list key) (closed : list bytes) (d b : bytes) (fl : list bool) : tst * list ecode * list bool :=
  let stay fl0 := let '(d', e, fl') := s_write d b fl0 in (TAct keys closed d', ELogFile :: e, fl') in
  if (m <? N.of_nat (length d))%N then
    let '(f1, fl1) := pop fl in                               (* read_dir *)
    if f1 then stay fl1 else
    let '(f2, fl2) := pop fl1 in                              (* read_dir *)
    if f2 then stay fl2 else
    let '(f3, fl3) := pop fl2 in                              (* open/create the file of the present second *)
    if f3 then stay fl3 else
    let '(d', e, fl') := s_write [] b fl3 in (TAct (keys ++ [(now, count now keys)]) (closed ++ [d]) d', e, fl')
  else let '(d', e, fl') := s_write d b fl in (TAct keys closed d', e, fl').

(* a writer that is not initialised yet *)
Definition t_init (app : bool) (m : N) (now : Z) (created : option Z) (b : bytes) (fl : list bool) : tst * list ecode * list bool :=
  let '(f0, fl0) := if app then pop fl else (false, fl) in    (* read_dir: the latest time stamp (with append) *)
  if f0 then (TInit created, [EWrite], fl0) else
  let '(f1, fl1) := pop fl0 in                                (* read_dir *)
  if f1 then (TInit created, [EWrite], fl1) else
  let '(f2, fl2) := pop fl1 in                                (* read_dir *)
  if f2 then (TInit created, [EWrite], fl2) else
  let '(f3, fl3) := pop fl2 in                                (* open/create *)
  if f3 then (TInit created, [EWrite], fl3) else
  let t := match created with Some t0 => t0 | None => now end in
  let '(f4, fl4) := if app then pop fl3 else (false, fl3) in  (* metadata (with append) *)
  if f4 then (TInit (Some t), [EWrite], fl4) else
  t_active m now [(t, 0)] [] [] b fl4.

(* one record: the clock advances by dt, then the record b is logged *)
Definition tstep (app : bool) (m : N) (now : Z) (st : tst) (fl : list bool) (r : Z * bytes) : tst * list ecode * list bool :=
  match st with
  | TInit created => t_init app m (now + fst r) created (snd r) fl
  | TAct keys closed d => t_active m (now + fst r) keys closed d (snd r) fl
  end.

Fixpoint simt_st (app : bool) (m : N) (now : Z) (st : tst) (fl : list bool) (recs : list (Z * bytes)) : tst * list ecode * list bool :=
  match recs with
  | [] => (st, [], fl)
  | r :: rest =>
    let '(st1, e1, fl1) := tstep app m now st fl r in
    let '(st2, e2, fl2) := simt_st app m (now + fst r) st1 fl1 rest in (st2, e1 ++ e2, fl2)
  end.

(* simt: what simt_st says from the start at t0, as keys and contents of the files, the reported errors (with their codes),
   the rest of the oracle *)
Definition simt (app : bool) (m : N) (t0 : Z) (fl : list bool) (recs : list (Z * bytes)) : list key * list bytes * list ecode * list bool :=
  let '(st, e, fl') := simt_st app m t0 (TInit None) fl recs in (t_keys st, t_conts st, e, fl').

(* the history: before each record the clock advances *)
Definition tops (recs : list (Z * bytes)) : list op := flat_map (fun r => [OTick (fst r); OWrite (snd r)]) recs.
Fixpoint telapsed (recs : list (Z * bytes)) : Z := match recs with [] => 0%Z | r :: rest => (fst r + telapsed rest)%Z end.

Definition ticks_ok (recs : list (Z * bytes)) : Prop := Forall (fun r => (0 <= fst r)%Z) recs.

Lemma telapsed_nonneg recs : ticks_ok recs -> (0 <= telapsed recs)%Z.
Proof. induction 1 as [|r rest Hr _ IH]; cbn [telapsed]; lia. Qed.

Lemma telapsed_app a b : telapsed (a ++ b) = (telapsed a + telapsed b)%Z.
Proof. induction a as [|r a IH]; cbn [Datatypes.app telapsed]; [reflexivity | rewrite IH; lia]. Qed.

Lemma s_run_tops_cons m a r rest :
  s_run m a (tops (r :: rest)) = s_run m (a_step a (OWrite (snd r)) (m <? N.of_nat (length (cur_of a)))%N) (tops rest).
Proof. reflexivity. Qed.

Lemma tops_app a b : tops (a ++ b) = tops a ++ tops b.
Proof. unfold tops. apply flat_map_app. Qed.

(* A specification is a step function on states (with the clock as a parameter) iterated over the records: sim; tr lists
   per record the record, the reports of its log call and the oracle entries the call consumed.  It is a specification in
   the sense of FaultRotSpec.spec, its context the clock that every record advances. *)
Section Records.
Variables (St : Type) (step : Z -> St -> list bool -> Z * bytes -> St * list ecode * list bool) (strm : St -> bytes).
Variable sim : Z -> St -> list bool -> list (Z * bytes) -> St * list ecode * list bool.
Variable tr : Z -> St -> list bool -> list (Z * bytes) -> list entry.
Hypothesis sim_nil : forall now st fl, sim now st fl [] = (st, [], fl).
Hypothesis sim_cons : forall now st fl r rest, sim now st fl (r :: rest) =
  let '(st1, e1, fl1) := step now st fl r in
  let '(st2, e2, fl2) := sim (now + fst r) st1 fl1 rest in (st2, e1 ++ e2, fl2).
Hypothesis tr_nil : forall now st fl, tr now st fl [] = [].
Hypothesis tr_cons : forall now st fl r rest, tr now st fl (r :: rest) =
  let '(st1, e1, fl1) := step now st fl r in
  {| t_rec := snd r; t_errs := e1; t_used := firstn (length fl - length fl1) fl |} :: tr (now + fst r) st1 fl1 rest.
Hypothesis Hok : forall now st fl r, stream_step_ok strm st fl (snd r) (step now st fl r).

Definition clocked : spec :=
  {| sp_ctx := Z; sp_st := St; sp_rec := Z * bytes; sp_adv := fun now r => (now + fst r)%Z; sp_bytes := snd; sp_stream := strm;
     sp_step := step; sp_sim := sim; sp_trace := tr;
     sp_sim_nil := sim_nil; sp_sim_cons := sim_cons; sp_trace_nil := tr_nil; sp_trace_cons := tr_cons; sp_step_ok := Hok |}.

Lemma clock_after recs : forall now, fold_left (fun now r => (now + fst r)%Z) recs now = (now + telapsed recs)%Z.
Proof. induction recs as [|r rest IH]; intros now; cbn [fold_left telapsed]; [lia | rewrite IH; lia]. Qed.

Lemma sim_app recs1 recs2 now st fl :
  sim now st fl (recs1 ++ recs2)
  = let '(st1, e1, fl1) := sim now st fl recs1 in
    let '(st2, e2, fl2) := sim (now + telapsed recs1) st1 fl1 recs2 in (st2, e1 ++ e2, fl2).
Proof using sim_nil sim_cons tr_nil tr_cons Hok. rewrite <- clock_after. exact (sim_app_gen clocked recs1 recs2 now st fl). Qed.

Hypothesis Hcodes : forall now st fl r c, In c (snd (fst (step now st fl r))) -> c = EWrite \/ c = ELogFile.

Theorem loss_is_reported recs now st fl :
  let '(st', e, _) := sim now st fl recs in
  exists kept, Subseq kept (List.map snd recs) /\ strm st' = strm st ++ concat kept
    /\ length recs = length kept + nlost e /\ nlost e <= length e
    /\ (forall c, In c e -> c = EWrite \/ c = ELogFile).
Proof using sim_nil sim_cons tr_nil tr_cons Hok Hcodes.
  pose proof (loss_is_reported_gen clocked recs now st fl) as L.
  pose proof (sim_errs_gen clocked (fun c => c = EWrite \/ c = ELogFile) Hcodes recs now st fl) as C.
  cbn [clocked sp_sim sp_stream sp_bytes] in L, C. destruct (sim now st fl recs) as [[st' e] fl'].
  destruct L as [kept [H1 [H2 [H3 H4]]]]. exists kept. auto 6.
Qed.

(* a property ok lo now of the states that every step keeps as the clock advances, and a relation ext between a state
   and its successors *)
Variables (ok : Z -> Z -> St -> Prop) (ext : St -> St -> Prop).
Hypothesis ext_refl : forall st, ext st st.
Hypothesis ext_trans : forall a b c, ext a b -> ext b c -> ext a c.
Hypothesis step_keys : forall lo now st fl r, (lo <= now)%Z -> (0 <= fst r)%Z ->
  let st' := fst (fst (step now st fl r)) in (ok lo now st -> ok lo (now + fst r) st') /\ ext st st'.

Theorem sim_keys lo : forall recs now st fl, (lo <= now)%Z -> ticks_ok recs ->
  let st' := fst (fst (sim now st fl recs)) in
  (ok lo now st -> ok lo (now + telapsed recs) st') /\ ext st st'.
Proof using sim_nil sim_cons ext_refl ext_trans step_keys.
  (* lia would make the proof depend on every hypothesis in sight *)
  clear tr_nil tr_cons tr Hok Hcodes strm.
  induction recs as [|r rest IH]; intros now st fl Hlo Ht; cbn [telapsed].
  - rewrite sim_nil. cbn [fst]. rewrite Z.add_0_r. split; [auto | apply ext_refl].
  - rewrite sim_cons. inversion Ht as [|r' rest' Hr Hrest]; subst.
    pose proof (step_keys lo now st fl r Hlo Hr) as S. destruct (step now st fl r) as [[st1 e1] fl1]. cbn [fst] in S.
    assert (Hlo1 : (lo <= now + fst r)%Z) by lia.
    specialize (IH (now + fst r)%Z st1 fl1 Hlo1 Hrest). destruct (sim (now + fst r) st1 fl1 rest) as [[st2 e2] fl2]. cbn [fst] in *.
    destruct S as [S1 S2]. destruct IH as [I1 I2].
    split; [rewrite Z.add_assoc; auto | exact (ext_trans _ _ _ S2 I2)].
Qed.

(* recovery: pend holds of every state that is reached; from such a state a step whose oracle holds no failure reports
   nothing, appends the record, follows the fault-free size rule and leaves a state that is good *)
Variables (m : N) (view : St -> aview) (pend good : St -> Prop).
Hypothesis pend_step : forall now st fl r, pend st -> pend (fst (fst (step now st fl r))).
Hypothesis good_pend : forall st, good st -> pend st.
Hypothesis step_recovered : forall now st fl r, all_false fl -> pend st ->
  let '(st', e, fl') := step now st fl r in
  e = [] /\ all_false fl' /\ good st'
  /\ view st' = a_step (view st) (OWrite (snd r)) (m <? N.of_nat (length (cur_of (view st))))%N.

Theorem recovery_spec : forall recs now st fl, all_false fl -> pend st ->
  let '(st', e, fl') := sim now st fl recs in
  e = [] /\ all_false fl' /\ strm st' = strm st ++ concat (List.map snd recs)
  /\ view st' = s_run m (view st) (tops recs)
  /\ (recs <> [] -> good st').
Proof using sim_nil sim_cons tr_nil tr_cons Hok good_pend step_recovered.
  apply (recovery_spec_gen clocked pend good
           (fun _ st r st' => view st' = a_step (view st) (OWrite (snd r)) (m <? N.of_nat (length (cur_of (view st))))%N)
           (fun _ st recs st' => view st' = s_run m (view st) (tops recs)) good_pend).
  - reflexivity.
  - intros now st r st1 rest st2 H1 H2. rewrite s_run_tops_cons, <- H1. exact H2.
  - exact step_recovered.
Qed.

Theorem recovery t0 st0 fl recs1 recs2 : ticks_ok (recs1 ++ recs2) -> pend st0 -> ok t0 t0 st0 ->
  let '(st1, e1, fl1) := sim t0 st0 fl recs1 in
  all_false fl1 ->
  let '(st2, e2, fl2) := sim t0 st0 fl (recs1 ++ recs2) in
  e2 = e1 /\ strm st2 = strm st1 ++ concat (List.map snd recs2)
  /\ view st2 = s_run m (view st1) (tops recs2)
  /\ ext st1 st2
  /\ ok t0 (t0 + telapsed (recs1 ++ recs2)) st2
  /\ (recs2 <> [] -> good st2).
Proof using sim_nil sim_cons tr_nil tr_cons Hok ext_refl ext_trans step_keys pend_step good_pend step_recovered.
  clear Hcodes.
  intros Ht P0 K0. rewrite sim_app. apply Forall_app in Ht. destruct Ht as [Ht1 Ht2].
  pose proof (sim_keys t0 recs1 t0 st0 fl (Z.le_refl _) Ht1) as F1.
  pose proof (sim_inv_gen clocked pend pend_step recs1 t0 st0 fl P0) as P. cbn [clocked sp_sim] in P.
  destruct (sim t0 st0 fl recs1) as [[st1 e1] fl1]. cbn [fst] in F1, P. intros Hf.
  pose proof (recovery_spec recs2 (t0 + telapsed recs1)%Z st1 fl1 Hf P) as R.
  pose proof (telapsed_nonneg recs1 Ht1) as Hn1.
  pose proof (sim_keys t0 recs2 (t0 + telapsed recs1)%Z st1 fl1 ltac:(lia) Ht2) as F2.
  destruct (sim (t0 + telapsed recs1) st1 fl1 recs2) as [[st2 e2] fl2]. cbn [fst] in F2.
  destruct R as [-> [_ [Hs [Hv Hc]]]].
  rewrite app_nil_r. destruct F1 as [S1 _]. destruct F2 as [S2 X2].
  split; [reflexivity|]. split; [exact Hs|]. split; [exact Hv|]. split; [exact X2|].
  split; [rewrite telapsed_app, Z.add_assoc; apply S2, S1, K0 | exact Hc].
Qed.
End Records.

(* ------------------------------------------------------------------ one record *)
Lemma tstream_act keys closed d : tstream (TAct keys closed d) = concat closed ++ d.
Proof. unfold tstream. cbn [t_conts]. rewrite concat_app. cbn [concat]. rewrite app_nil_r. reflexivity. Qed.
Lemma tstream_init created : tstream (TInit created) = [].
Proof. destruct created; reflexivity. Qed.

Lemma t_active_alt m now keys closed d b fl :
  t_active m now keys closed d b fl =
  if (m <? N.of_nat (length d))%N then
    match npops 3 fl with
    | (Some _, fl') => let '(d', e, fl'') := s_write d b fl' in (TAct keys closed d', ELogFile :: e, fl'')
    | (None, fl') => let '(d', e, fl'') := s_write [] b fl' in (TAct (keys ++ [(now, count now keys)]) (closed ++ [d]) d', e, fl'')
    end
  else let '(d', e, fl') := s_write d b fl in (TAct keys closed d', e, fl').
Proof.
  unfold t_active. cbn [npops]. destruct (m <? N.of_nat (length d))%N; [|reflexivity].
  destruct (pop fl) as [f1 fl1]. destruct f1; [reflexivity|].
  destruct (pop fl1) as [f2 fl2]. destruct f2; [reflexivity|].
  destruct (pop fl2) as [f3 fl3]. destruct f3; reflexivity.
Qed.

Lemma t_active_ok m now keys closed d b fl : stream_step_ok tstream (TAct keys closed d) fl b (t_active m now keys closed d b fl).
Proof.
  rewrite t_active_alt. destruct (m <? N.of_nat (length d))%N.
  - pose proof (npops_used 3 fl) as U. destruct (npops 3 fl) as [[j|] fl']; cbn [fst snd failed] in U.
    + (* a failing step of the rotation: the record goes into the old file *)
      exact (write_step_in tstream (TAct keys closed d) fl b fl' [ELogFile] (concat closed) d (fun d' => TAct keys closed d')
               U eq_refl (tstream_act _ _ _) (fun d' => tstream_act _ _ _)).
    + apply (write_step_in tstream (TAct keys closed d) fl b fl' [] (concat closed ++ d) [] (fun d' => TAct _ (closed ++ [d]) d') U eq_refl).
      * rewrite app_nil_r. apply tstream_act.
      * intros d'. rewrite tstream_act, concat_app. cbn [concat]. rewrite app_nil_r. reflexivity.
  - exact (write_step_in tstream (TAct keys closed d) fl b fl [] (concat closed) d (fun d' => TAct keys closed d')
             (acct_refl fl) eq_refl (tstream_act _ _ _) (fun d' => tstream_act _ _ _)).
Qed.

(* the oracle entries of one initialisation: with append the listing for the latest time stamp comes first *)
Definition t_init_pops (app : bool) (fl : list bool) : option bool * list bool := init_pops ((if app then 3 else 2) + 1) app fl.

Definition t_first (now : Z) (created : option Z) : Z := match created with Some t0 => t0 | None => now end.

Lemma t_init_alt app m now created b fl :
  t_init app m now created b fl
  = match t_init_pops app fl with
    | (Some k, fl') => (TInit (if k then Some (t_first now created) else created), [EWrite], fl')
    | (None, fl') => t_active m now [(t_first now created, 0)] [] [] b fl'
    end.
Proof.
  unfold t_init, t_init_pops, init_pops, t_first. destruct app; cbn [npops Nat.add].
  - destruct (pop fl) as [f0 fl0]. destruct f0; [reflexivity|].
    destruct (pop fl0) as [f1 fl1]. destruct f1; [reflexivity|].
    destruct (pop fl1) as [f2 fl2]. destruct f2; [reflexivity|].
    destruct (pop fl2) as [f3 fl3]. destruct f3; [reflexivity|].
    destruct (pop fl3) as [f4 fl4]. destruct f4; reflexivity.
  - destruct (pop fl) as [f1 fl1]. destruct f1; [reflexivity|].
    destruct (pop fl1) as [f2 fl2]. destruct f2; [reflexivity|].
    destruct (pop fl2) as [f3 fl3]. destruct f3; reflexivity.
Qed.

Lemma t_init_ok app m now created b fl : stream_step_ok tstream (TInit created) fl b (t_init app m now created b fl).
Proof.
  rewrite t_init_alt. pose proof (init_pops_used ((if app then 3 else 2) + 1) app fl) as U. fold (t_init_pops app fl) in U.
  destruct (t_init_pops app fl) as [[k|] fl']; cbn [fst snd failed] in U.
  - exact (init_fails_ok tstream _ _ fl fl' b U (tstream_init _) (tstream_init _)).
  - apply (stream_step_prefix tstream (TInit created) (TAct [(t_first now created, 0)] [] []) fl fl' b _ U); [rewrite tstream_init; reflexivity | apply t_active_ok].
Qed.

Theorem tstep_ok_all app m now st fl r : stream_step_ok tstream st fl (snd r) (tstep app m now st fl r).
Proof. destruct st as [created|keys closed d]; cbn [tstep]; [apply t_init_ok | apply t_active_ok]. Qed.

(* ------------------------------------------------------------------ whole lists of records *)
(* per record: the record, the reports of its log call, the oracle entries its log call consumed *)
Fixpoint tracet (app : bool) (m : N) (now : Z) (st : tst) (fl : list bool) (recs : list (Z * bytes)) : list entry :=
  match recs with
  | [] => []
  | r :: rest =>
    let '(st1, e1, fl1) := tstep app m now st fl r in
    {| t_rec := snd r; t_errs := e1; t_used := firstn (length fl - length fl1) fl |} :: tracet app m (now + fst r) st1 fl1 rest
  end.

(* (2) Only records during whose own log call a failing call was consumed can be missing; the stream (the files in the
   order of their keys) consists of the other records, in order, each once. *)
Theorem tsd_lost_only_around_failures app m t0 fl recs :
  let '(st', e, fl') := simt_st app m t0 (TInit None) fl recs in
  let t := tracet app m t0 (TInit None) fl recs in
  List.map t_rec t = List.map snd recs
  /\ fl = concat (List.map t_used t) ++ fl'
  /\ e = concat (List.map t_errs t)
  /\ tstream st' = concat (List.map t_kept t)
  /\ (forall x, In x t -> length (t_errs x) = ntrue (t_used x))
  /\ (forall x, In x t -> (forall f, In f (t_used x) -> f = false) -> t_errs x = [] /\ t_kept x = t_rec x)
  /\ (forall x, In x t -> t_kept x <> t_rec x -> In true (t_used x) /\ In EWrite (t_errs x)).
Proof.
  exact (lost_only_around_failures_gen (clocked tst (tstep app m) tstream (simt_st app m) (tracet app m) (fun _ _ _ => eq_refl)
           (fun _ _ _ _ _ => eq_refl) (fun _ _ _ => eq_refl) (fun _ _ _ _ _ => eq_refl) (tstep_ok_all app m)) t0 (TInit None) fl recs eq_refl).
Qed.

Lemma tstep_codes app m now st fl r c : In c (snd (fst (tstep app m now st fl r))) -> c = EWrite \/ c = ELogFile.
Proof.
  assert (L : forall x, In x [ELogFile] -> x = EWrite \/ x = ELogFile) by (intros x [<-|[]]; auto).
  assert (A : forall nw keys closed d b fl0, In c (snd (fst (t_active m nw keys closed d b fl0))) -> c = EWrite \/ c = ELogFile).
  { intros nw keys closed d b fl0. rewrite t_active_alt.
    destruct (m <? N.of_nat (length d))%N; [|apply (write_step_codes (fun d' => TAct keys closed d') []); intros x []].
    destruct (npops 3 fl0) as [[j|] fl'].
    - apply (write_step_codes (fun d' => TAct keys closed d') [ELogFile]). exact L.
    - apply (write_step_codes (fun d' => TAct _ (closed ++ [d]) d') []). intros x []. }
  destruct st as [created|keys closed d]; cbn [tstep]; [|apply A].
  rewrite t_init_alt. destruct (t_init_pops app fl) as [[k|] fl']; [cbn; intros [<-|[]]; auto | apply A].
Qed.

(* (3) the stream is the concatenation of a subsequence of the records (no duplication, no reordering); each missing
   record is one reported EWrite: #missing = #EWrite <= #reported errors (the other reports are ELogFile: a failed
   step of a rotation, the record of that call was kept) *)
Theorem tsd_loss_is_reported app m : forall recs now st fl,
  let '(st', e, _) := simt_st app m now st fl recs in
  exists kept, Subseq kept (List.map snd recs) /\ tstream st' = tstream st ++ concat kept
    /\ length recs = length kept + nlost e /\ nlost e <= length e
    /\ (forall c, In c e -> c = EWrite \/ c = ELogFile).
Proof.
  exact (loss_is_reported tst (tstep app m) tstream (simt_st app m) (tracet app m) (fun _ _ _ => eq_refl) (fun _ _ _ _ _ => eq_refl)
           (fun _ _ _ => eq_refl) (fun _ _ _ _ _ => eq_refl)
           (tstep_ok_all app m) (tstep_codes app m)).
Qed.

(* ------------------------------------------------------------------ the keys, for every oracle *)
(* the state is well-formed at the second `now`: one more key than closed files; the keys are those of keys_ok (seconds
   non-decreasing, within one second the positions 0, 1, 2, ...: all keys - all names - different), all in [lo, now] *)
Definition t_ok (lo now : Z) (st : tst) : Prop :=
  match st with TAct keys closed _ => length keys = S (length closed) | TInit _ => True end
  /\ keys_ok (t_keys st) /\ (forall k, In k (t_keys st) -> (lo <= fst k <= now)%Z).

Lemma keys_ok_one t : keys_ok [(t, 0)].
Proof. exact (ko_snoc [] t ko_nil (fun k (H : In k []) => match H with end)). Qed.

(* what one step does to the files: keys and closed files are only extended (a closed file keeps key and content) *)
Definition textends (st st' : tst) : Prop :=
  (exists xk, t_keys st' = t_keys st ++ xk) /\ (exists xc, t_closed st' = t_closed st ++ xc).

Lemma t_active_keys m lo now now' keys closed d b fl : (lo <= now <= now')%Z ->
  let st' := fst (fst (t_active m now' keys closed d b fl)) in
  (t_ok lo now (TAct keys closed d) -> t_ok lo now' st') /\ textends (TAct keys closed d) st'.
Proof.
  intros Hn.
  assert (Same : forall d', (t_ok lo now (TAct keys closed d) -> t_ok lo now' (TAct keys closed d'))
                            /\ textends (TAct keys closed d) (TAct keys closed d')).
  { intros d'. split.
    - intros [L [K R]]. split; [exact L|]. split; [exact K|]. intros k Ik. specialize (R k Ik). lia.
    - split; [exists [] | exists []]; cbn [t_keys t_closed]; rewrite app_nil_r; reflexivity. }
  rewrite t_active_alt. destruct (m <? N.of_nat (length d))%N.
  - destruct (npops 3 fl) as [[j|] fl3]; [destruct (s_write d b fl3) as [[d' e] fl4]; apply Same|].
    destruct (s_write [] b fl3) as [[d' e] fl4]. cbn [fst]. split.
    + intros [L [K R]]. cbn [t_keys] in *. split; [rewrite !app_length, L; cbn [length]; lia|].
      split; [apply ko_snoc; [exact K | intros k Ik; specialize (R k Ik); lia]|].
      intros k Ik. apply in_app_or in Ik. destruct Ik as [Ik|[<-|[]]]; [specialize (R k Ik); lia | cbn [fst]; lia].
    + split; eexists; reflexivity.
  - destruct (s_write d b fl) as [[d' e] fl1]. apply Same.
Qed.

Lemma tstep_keys app m lo now st fl r : (lo <= now)%Z -> (0 <= fst r)%Z ->
  let st' := fst (fst (tstep app m now st fl r)) in
  (t_ok lo now st -> t_ok lo (now + fst r) st') /\ textends st st'.
Proof.
  intros Hlo Hdt. assert (Hn : (lo <= now <= now + fst r)%Z) by lia.
  destruct st as [created|keys closed d]; cbn [tstep]; [|apply (t_active_keys m lo now); exact Hn].
  rewrite t_init_alt. destruct (t_init_pops app fl) as [[k|] fl'].
  - cbn [fst]. destruct k.
    + split.
      * intros [_ [K R]]. split; [exact I|]. cbn [t_keys]. split; [apply keys_ok_one|].
        intros k [<-|[]]. cbn [fst]. unfold t_first. destruct created as [t0|]; [pose proof (R (t0, 0) (or_introl eq_refl)) as X; cbn [fst] in X; lia | lia].
      * split; [|exists []; reflexivity]. unfold t_first. destruct created as [t0|]; cbn [t_keys]; [exists []; reflexivity | eexists; reflexivity].
    + split.
      * intros [_ [K R]]. split; [exact I|]. split; [exact K|]. intros k Ik. specialize (R k Ik). lia.
      * split; exists []; rewrite app_nil_r; reflexivity.
  - (* the first record of a fresh writer never rotates *)
    rewrite t_active_alt. change (N.of_nat (length (@nil N))) with 0%N.
    assert (E : (m <? 0)%N = false) by (apply N.ltb_ge; apply N.le_0_l). rewrite E.
    destruct (s_write [] (snd r) fl') as [[d' e] fl1]. cbn [fst]. split.
    + intros [_ [K R]]. split; [reflexivity|]. cbn [t_keys]. split; [apply keys_ok_one|].
      intros k [<-|[]]. cbn [fst]. unfold t_first. destruct created as [t0|]; [pose proof (R (t0, 0) (or_introl eq_refl)) as X; cbn [fst] in X; lia | lia].
    + split; [|exists []; reflexivity]. unfold t_first. destruct created as [t0|]; cbn [t_keys]; [exists []; reflexivity | eexists; reflexivity].
Qed.

Lemma textends_refl st : textends st st.
Proof. split; exists []; rewrite app_nil_r; reflexivity. Qed.
Lemma textends_trans a b c : textends a b -> textends b c -> textends a c.
Proof.
  intros [[k1 S2] [c1 S3]] [[k2 I2] [c2 I3]].
  split; [exists (k1 ++ k2); rewrite I2, S2, app_assoc; reflexivity | exists (c1 ++ c2); rewrite I3, S3, app_assoc; reflexivity].
Qed.

(* for EVERY oracle: the keys of the files are those of keys_ok - all different, so no file is ever opened a second time;
   each key carries the second at which its file was started -, and keys and closed files are only extended *)
Theorem simt_keys app m lo : forall recs now st fl, (lo <= now)%Z -> ticks_ok recs ->
  let st' := fst (fst (simt_st app m now st fl recs)) in
  (t_ok lo now st -> t_ok lo (now + telapsed recs) st') /\ textends st st'.
Proof.
  exact (sim_keys tst (tstep app m) (simt_st app m) (fun _ _ _ => eq_refl) (fun _ _ _ _ _ => eq_refl) t_ok textends
           textends_refl textends_trans (tstep_keys app m) lo).
Qed.

Lemma t_ok_init lo now : t_ok lo now (TInit None).
Proof. split; [exact I|]. split; [constructor | intros k []]. Qed.

(* ------------------------------------------------------------------ (4) recovery *)
(* the view of the fault-free development (NumRun.aview): closed contents and the content of the writer's file *)
Definition taview (st : tst) : aview :=
  match st with TInit _ => None | TAct _ closed d => Some (closed, d) end.

(* one record when no more failures come: nothing is reported, the record is appended, a rotation that is due is carried
   out (also one that failed before), the state is that of the fault-free size rule *)
Lemma tstep_recovered app m now st fl r : all_false fl ->
  let '(st', e, fl') := tstep app m now st fl r in
  e = [] /\ all_false fl' /\ (exists keys closed d, st' = TAct keys closed d)
  /\ taview st' = a_step (taview st) (OWrite (snd r)) (m <? N.of_nat (length (cur_of (taview st))))%N.
Proof.
  intros Hf. set (b := snd r).
  assert (A : forall nw keys closed d fl0, all_false fl0 ->
     let '(st', e, fl') := t_active m nw keys closed d b fl0 in
     e = [] /\ all_false fl' /\ (exists keys' closed' d', st' = TAct keys' closed' d')
     /\ taview st' = a_step (Some (closed, d)) (OWrite b) (m <? N.of_nat (length d))%N).
  { intros nw keys closed d fl0 H0. rewrite t_active_alt. cbn [a_step].
    destruct (m <? N.of_nat (length d))%N eqn:Em.
    - destruct (npops_all_false 3 fl0 H0) as [E1 E2]. destruct (npops 3 fl0) as [o fl3]. cbn [fst snd] in *. subst o.
      pose proof (s_write_all_false [] b fl3 E2) as S. destruct (s_write [] b fl3) as [[d' e] fl4]. destruct S as [-> [-> S3]].
      split; [reflexivity|]. split; [exact S3|]. split; [eauto | reflexivity].
    - pose proof (s_write_all_false d b fl0 H0) as S. destruct (s_write d b fl0) as [[d' e] fl1]. destruct S as [-> [-> S3]].
      split; [reflexivity|]. split; [exact S3|]. split; [eauto | reflexivity]. }
  destruct st as [created|keys closed d]; cbn [tstep taview cur_of]; fold b.
  - rewrite t_init_alt. destruct (init_pops_all_false ((if app then 3 else 2) + 1) app fl Hf) as [E1 Hf']. fold (t_init_pops app fl) in E1, Hf'.
    destruct (t_init_pops app fl) as [o fl']. cbn [fst snd] in E1, Hf'. subst o.
    pose proof (A (now + fst r)%Z [(t_first (now + fst r) created, 0)] [] [] fl' Hf') as S.
    destruct (t_active m (now + fst r) [(t_first (now + fst r) created, 0)] [] [] b fl') as [[st' e] fl'']. exact S.
  - pose proof (A (now + fst r)%Z keys closed d fl Hf) as S.
    destruct (t_active m (now + fst r) keys closed d b fl) as [[st' e] fl']. exact S.
Qed.

(* (4) Once no more failures come (the rest of the oracle is empty or all `false`), nothing more is reported, every
   further record is in the stream, and rotation works again: the contents develop exactly by the fault-free size rule
   NumRun.s_run (rotate before a record iff the file holds more than m bytes) - a rotation whose steps failed is carried out
   with the next record *)
Theorem tsd_recovery app m t0 fl recs1 recs2 : ticks_ok (recs1 ++ recs2) ->
  let '(st1, e1, fl1) := simt_st app m t0 (TInit None) fl recs1 in
  all_false fl1 ->
  let '(st2, e2, fl2) := simt_st app m t0 (TInit None) fl (recs1 ++ recs2) in
  e2 = e1 /\ tstream st2 = tstream st1 ++ concat (List.map snd recs2)
  /\ taview st2 = s_run m (taview st1) (tops recs2)
  /\ textends st1 st2
  /\ t_ok t0 (t0 + telapsed (recs1 ++ recs2)) st2
  /\ (recs2 <> [] -> exists keys closed d, st2 = TAct keys closed d).
Proof.
  intros Ht.
  exact (recovery tst (tstep app m) tstream (simt_st app m) (tracet app m) (fun _ _ _ => eq_refl) (fun _ _ _ _ _ => eq_refl)
           (fun _ _ _ => eq_refl) (fun _ _ _ _ _ => eq_refl) (tstep_ok_all app m)
           t_ok textends textends_refl textends_trans (tstep_keys app m)
           m taview (fun _ => True) (fun st => exists keys closed d, st = TAct keys closed d) (fun _ _ _ _ _ => I) (fun _ _ => I)
           (fun now st fl r Hf _ => tstep_recovered app m now st fl r Hf) t0 (TInit None) fl recs1 recs2 Ht I (t_ok_init t0 t0)).
Qed.

Print Assumptions tsd_lost_only_around_failures.
Print Assumptions tsd_loss_is_reported.
Print Assumptions simt_keys.
Print Assumptions tsd_recovery.
