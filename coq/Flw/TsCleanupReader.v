(* The time-stamp namings with cleanup: what a READER finds, and the C07 oracles on the final snapshot.
   The reader order of Oracles/ReaderOrder.v (time stamp, then restart counter, rCURRENT last; archives decompressed) applied to
   the snapshot of the directory that the stopped writer leaves gives the surviving files in the order in which they were
   written: family_in_order = the last entries of closed ++ [cur].  So the executable oracles of C07 accept the snapshot:
   oracle_tail (what survives is a contiguous tail of the logged stream), oracle_limits (at most the configured numbers of
   plain rotated files and of archives, no unfinished archive), oracle_current_plain (the newest file is not compressed). *)
Require Import FL.Base.Bytes FL.Base.PathName FL.Fs.Fs FL.Names.FileSpec FL.Flw.Model FL.Flw.NumInv FL.Flw.Run
  FL.Flw.NumRun FL.Oracles.ReaderOrder FL.Oracles.O_Stream FL.Flw.NumListing FL.Flw.NumRestart FL.Flw.CleanupFacts
  FL.Flw.NumCleanupNames FL.Flw.NumCleanupStep FL.Flw.NumCleanupRun FL.Flw.NumCleanup FL.Flw.NumDCleanupStep
  FL.Flw.NumDCleanupRun FL.Flw.TsTime FL.Flw.TsNames FL.Flw.TsInv FL.Flw.TsRun FL.Flw.TsTheorems FL.Flw.TsReader
  FL.Flw.TsdTheorems FL.Flw.ListingExact FL.Flw.GenCleanup FL.Flw.TsCleanupNames FL.Flw.TsdCleanupRun
  FL.Flw.TsdCleanup FL.Flw.TsCleanupRun FL.Flw.TsCleanup.
From Coq Require Import ZifyN ZifyNat ZifyBool Sorted Permutation.
Open Scope nat_scope.

(* ------------------------------------------------------------------ sorting is a permutation *)
Lemma insert_key_perm {A} (x : rkey * A) l : Permutation (insert_key x l) (x :: l).
Proof.
  induction l as [|y l IH]; cbn [insert_key]; [apply Permutation_refl|]. destruct (key_lt (fst y) (fst x)); [|apply Permutation_refl].
  eapply Permutation_trans; [apply perm_skip, IH | apply perm_swap].
Qed.
Lemma sort_keys_perm {A} (l : list (rkey * A)) : Permutation (sort_keys l) l.
Proof.
  induction l as [|x l IH]; [apply Permutation_refl|]. change (sort_keys (x :: l)) with (insert_key x (sort_keys l)).
  eapply Permutation_trans; [apply insert_key_perm | apply perm_skip, IH].
Qed.

(* ------------------------------------------------------------------ entries of kind 0 and 1 *)
Lemma family_entries_map' sp fixed cur f : forall ns,
  (forall n, In n ns -> exists kd d i, snap_entry f n = (n, kd, d) /\ (kd <? 2)%N = true /\ full_infix sp fixed n = Some i) ->
  family_entries sp fixed cur (List.map (snap_entry f) ns) = List.map (fun n => (key_of cur (fam sp fixed n), snap_entry f n)) ns.
Proof.
  induction ns as [|n ns IH]; intros H; [reflexivity|]. cbn [List.map family_entries].
  destruct (H n (or_introl eq_refl)) as [kd [d [i [Es [Hk Ef]]]]]. rewrite Es, Hk. unfold fam at 1. rewrite Ef.
  rewrite IH by (intros m Im; apply H; right; exact Im). reflexivity.
Qed.

(* the archive of a family member has the member's infix *)
Lemma full_infix_gz sp fixed n : strip_suffix (dot :: gz_sfx) n = None -> full_infix sp fixed (gz_name n) = full_infix sp fixed n.
Proof.
  intros H. unfold full_infix. rewrite gz_name_app. unfold dot_gz. rewrite NamesFacts.strip_suffix_app, H. reflexivity.
Qed.

Lemma is_suffix_app (pre s : bytes) : is_suffix s (pre ++ s) = true.
Proof. unfold is_suffix. rewrite rev_app_distr. apply NamesFacts.is_prefix_app. Qed.

Lemma limits_of_direct k : limits_of k true = klimd k.
Proof. destruct k as [|a|b|a b]; try reflexivity; destruct a; reflexivity. Qed.
Lemma limits_of_plain k : limits_of k false = klim k.
Proof. destruct k; reflexivity. Qed.

Lemma ssorted_snoc {A} (R : A -> A -> Prop) l x : StronglySorted R l -> Forall (fun a => R a x) l -> StronglySorted R (l ++ [x]).
Proof.
  induction 1 as [|a l S1 IH Ha]; intros F; cbn [app]; [constructor; constructor|].
  inversion F as [|? ? Fa Fl]; subst. constructor; [apply IH; exact Fl|]. apply Forall_app. split; [exact Ha | constructor; [exact Fa | constructor]].
Qed.

(* ------------------------------------------------------------------ the snapshot in reader order *)
Section GReader.
Variables (c : config) (e : Z) (f : fs) (keys : list key) (all : list bytes) (lo mid : nat).
(* curo: the content of rCURRENT if the naming has one; curinf: its infix for the reader *)
Variables (curo : option bytes) (curinf : option bytes).
Hypothesis G : sfx_ok (c_spec c).
Hypothesis K : keys_ok keys.
Hypothesis Yk : forall k, In k keys -> in_years e (fst k).
Hypothesis Hlen : length keys = length all.
Hypothesis KD : gdir (tname c e keys) (cname c) f all lo mid.
Hypothesis Hkey : forall k, in_years e (fst k) -> key_of curinf (infix_of e k) = rk e k.
Hypothesis Hcur : match curo with
                  | Some cur => curinf = Some cur_infix /\ exists j, lookup f (cname c) = Some j /\ plain (inode f j) /\ content f j = cur
                  | None => lookup f (cname c) = None
                  end.

Let L := length all.
Let sp := c_spec c.
Let fixed := fixed0 c.
Let nmf := tname c e keys.
Let GN : gnames nmf (cname c) L.
Proof. unfold L. rewrite <- Hlen. apply gnames_ts; assumption. Qed.
Let Yi : forall i, i < L -> in_years e (fst (nth i keys kd)).
Proof. intros i Hi. apply Yk, nth_In. rewrite Hlen. exact Hi. Qed.
Let Hle : lo <= mid <= L. Proof. exact (gd_le _ _ _ _ _ _ KD). Qed.

Definition kkind (i : nat) : N := if mid <=? i then 0%N else 1%N.
Definition kentry (i : nat) : rkey * ReaderOrder.entry := (rk e (nth i keys kd), (gentry nmf mid i, kkind i, nth i all [])).
Definition cur_target : list (rkey * ReaderOrder.entry) := match curo with Some cur => [(rcur, (cname c, 0%N, cur))] | None => [] end.
Definition gtarget : list (rkey * ReaderOrder.entry) := List.map kentry (seq lo (L - lo)) ++ cur_target.

Lemma gtarget_in a : In a gtarget <-> (exists i, lo <= i < L /\ a = kentry i) \/ In a cur_target.
Proof.
  unfold gtarget. rewrite in_app_iff, in_map_iff. split.
  - intros [(i & <- & Hi)|H]; [left; exists i; split; [apply in_seq in Hi; lia | reflexivity] | right; exact H].
  - intros [(i & Hi & ->)|H]; [left; exists i; split; [reflexivity | apply in_seq; lia] | right; exact H].
Qed.

Lemma gtarget_contents :
  contents (List.map snd gtarget) = skipn lo all ++ match curo with Some cur => [cur] | None => [] end.
Proof.
  unfold gtarget, contents. rewrite !map_app, !map_map. f_equal.
  - cbn [kentry snd]. apply (map_seq_skipn (fun i => nth i all []) all [] (L - lo) lo); [unfold L in *; lia | reflexivity].
  - unfold cur_target. destruct curo; reflexivity.
Qed.

Lemma gtarget_sorted : StronglySorted (before ReaderOrder.entry) gtarget.
Proof.
  unfold gtarget.
  assert (S1 : StronglySorted (before ReaderOrder.entry) (List.map kentry (seq lo (L - lo)))).
  { apply StronglySorted_map_seq. intros i j Hi Hij Hj. unfold before, kentry. cbn [fst].
    apply rk_lt; [apply Yi; lia | apply Yi; lia|]. apply (keys_sorted keys K). rewrite Hlen. fold L. lia. }
  unfold cur_target. destruct curo as [cur|]; [|rewrite app_nil_r; exact S1].
  apply ssorted_snoc; [exact S1|]. apply Forall_forall. intros a Ia. apply in_map_iff in Ia. destruct Ia as (i & <- & _).
  unfold before, kentry. cbn [fst]. exact (rk_cur e (nth i keys kd)).
Qed.

Lemma gtarget_names_nodup : NoDup (List.map ename gtarget).
Proof.
  apply sorted_nodup; [exact gtarget_sorted|]. intros a b Ia Ib E.
  apply gtarget_in in Ia. apply gtarget_in in Ib.
  assert (CT : forall x, In x cur_target -> exists cur, curo = Some cur /\ x = (rcur, (cname c, 0%N, cur))).
  { intros x Hx. unfold cur_target in Hx. destruct curo as [cur|]; [|destruct Hx]. destruct Hx as [<-|[]]. eauto. }
  destruct Ia as [(i & Hi & ->)|Ia], Ib as [(j & Hj & ->)|Ib].
  - unfold ename, kentry in E. cbn [fst snd] in E. apply (gentry_inj nmf (cname c) L GN) in E; [subst j; reflexivity | lia | lia].
  - exfalso. destruct (CT _ Ib) as (cur & _ & ->). unfold ename, kentry in E. cbn [fst snd] in E.
    unfold gentry in E. destruct (mid <=? i); [exact (proj1 (gn_cn _ _ _ GN i ltac:(lia)) E) | exact (proj2 (gn_cn _ _ _ GN i ltac:(lia)) E)].
  - exfalso. destruct (CT _ Ia) as (cur & _ & ->). unfold ename, kentry in E. cbn [fst snd] in E. symmetry in E.
    unfold gentry in E. destruct (mid <=? j); [exact (proj1 (gn_cn _ _ _ GN j ltac:(lia)) E) | exact (proj2 (gn_cn _ _ _ GN j ltac:(lia)) E)].
  - destruct (CT _ Ia) as (cur & _ & ->). destruct (CT _ Ib) as (cur' & _ & ->). reflexivity.
Qed.

(* what the snapshot says about a name of the directory *)
Lemma gentry_of_name n : In n (dir_names f) ->
  (exists i, lo <= i < L /\ n = gentry nmf mid i /\ snap_entry f n = (n, kkind i, nth i all [])
             /\ full_infix sp fixed n = Some (infix_of e (nth i keys kd)))
  \/ (exists cur, curo = Some cur /\ n = cname c /\ snap_entry f n = (n, 0%N, cur) /\ full_infix sp fixed n = Some cur_infix).
Proof.
  intros I. apply dir_names_lookup in I. destruct I as [j Lj].
  destruct (gd_only _ _ _ _ _ _ KD n j Lj) as [->|[(i & Hi & ->)|(i & Hi & ->)]].
  - right. destruct curo as [cur|]; [|congruence]. destruct Hcur as (_ & jc & Lc & Pc & Cc).
    exists cur. split; [reflexivity|]. split; [reflexivity|]. split; [exact (plain_entry_d f _ _ _ Lc Pc Cc) | apply full_infix_cname; exact G].
  - left. fold L in Hi. exists i. split; [lia|]. rewrite gentry_plain by lia. split; [reflexivity|].
    destruct (gd_plain _ _ _ _ _ _ KD i Hi) as (j' & Lj' & Pj & Cj). unfold kkind. destruct (Nat.leb_spec mid i); [|lia].
    split; [exact (plain_entry_d f _ _ _ Lj' Pj Cj)|]. apply full_infix_kname; [exact G | apply Yi; lia].
  - left. exists i. split; [lia|]. rewrite gentry_arch by lia. split; [reflexivity|].
    destruct (gd_arch _ _ _ _ _ _ KD i Hi) as (j' & Lj' & Dj & Gj & Fj). unfold kkind. destruct (Nat.leb_spec mid i); [lia|].
    split.
    + unfold snap_entry, file_of. rewrite Lj', Fj, Gj, Dj. reflexivity.
    + unfold gzf, nmf, tname. rewrite full_infix_gz by (apply kname_no_gz; [exact G | apply Yi; lia]).
      apply full_infix_kname; [exact G | apply Yi; lia].
Qed.

Theorem gsorted_entries : sort_keys (family_entries sp fixed curinf (snap_list f)) = gtarget.
Proof.
  unfold snap_list.
  set (ns := sort_names (dir_names f)).
  assert (Hns : forall n, In n ns -> In n (dir_names f)) by (intros n; apply sort_names_in').
  rewrite (family_entries_map' sp fixed curinf f ns).
  2:{ intros n In_. destruct (gentry_of_name n (Hns n In_)) as [(i & _ & _ & Es & Ef)|(cur & _ & _ & Es & Ef)].
      - exists (kkind i), (nth i all []), (infix_of e (nth i keys kd)). split; [exact Es|]. split; [unfold kkind; destruct (mid <=? i); reflexivity | exact Ef].
      - exists 0%N, cur, cur_infix. auto. }
  set (l := List.map (fun n => (key_of curinf (fam sp fixed n), snap_entry f n)) ns).
  assert (Enames : List.map ename l = ns).
  { unfold l. rewrite map_map. unfold ename. cbn [snd]. rewrite <- (map_id ns) at 2. apply map_ext. intros n. apply snap_entry_name. }
  apply (sort_keys_target ReaderOrder.entry ename gtarget l gtarget_sorted gtarget_names_nodup).
  - intros x Ix. unfold l in Ix. apply in_map_iff in Ix. destruct Ix as [n [<- In_]]. apply gtarget_in.
    destruct (gentry_of_name n (Hns n In_)) as [(i & Hi & -> & Es & Ef)|(cur & Ec & -> & Es & Ef)]; unfold fam; rewrite Ef, Es.
    + left. exists i. split; [exact Hi|]. rewrite Hkey by (apply Yi; lia). reflexivity.
    + right. unfold cur_target. rewrite Ec. left. rewrite Ec in Hcur. destruct Hcur as [-> _]. rewrite key_of_cur. reflexivity.
  - rewrite Enames. apply sort_names_nodup. exact (gd_nodup _ _ _ _ _ _ KD).
  - intros a Ia. rewrite Enames. apply sort_names_in', dir_names_lookup. apply gtarget_in in Ia.
    destruct Ia as [(i & Hi & ->)|Ia].
    + unfold ename, kentry. cbn [fst snd]. destruct (Nat.le_gt_cases mid i) as [H|H].
      * rewrite gentry_plain by exact H. destruct (gd_plain _ _ _ _ _ _ KD i ltac:(fold L; lia)) as (j & Lj & _). eauto.
      * rewrite gentry_arch by exact H. destruct (gd_arch _ _ _ _ _ _ KD i ltac:(lia)) as (j & Lj & _). eauto.
    + unfold cur_target in Ia. destruct curo as [cur|]; [|destruct Ia]. destruct Ia as [<-|[]].
      destruct Hcur as (_ & jc & Lc & _). unfold ename. cbn [fst snd]. eauto.
Qed.

Corollary greader_order : reader_order sp fixed curinf (snap_list f) = List.map snd gtarget.
Proof. unfold reader_order. rewrite gsorted_entries. reflexivity. Qed.

(* the family entries of the snapshot are a permutation of the target *)
Lemma gfamily_perm : Permutation (family_entries sp fixed curinf (snap_list f)) gtarget.
Proof. rewrite <- gsorted_entries. apply Permutation_sym, sort_keys_perm. Qed.

(* the counts of the oracle: plain rotated files, archives, unfinished archives *)
Lemma count_seq_ge (p : nat -> bool) a cnt : (forall i, a <= i < a + cnt -> p i = true) -> length (filter p (seq a cnt)) = cnt.
Proof.
  revert a. induction cnt as [|cnt IH]; intros a H; cbn [seq filter]; [reflexivity|].
  rewrite H by lia. cbn [length]. rewrite IH; [reflexivity|]. intros i Hi. apply H. lia.
Qed.
Lemma count_seq_none (p : nat -> bool) a cnt : (forall i, a <= i < a + cnt -> p i = false) -> length (filter p (seq a cnt)) = 0.
Proof.
  revert a. induction cnt as [|cnt IH]; intros a H; cbn [seq filter]; [reflexivity|].
  rewrite H by lia. apply IH. intros i Hi. apply H. lia.
Qed.

Lemma gcount kind :
  length (filter (fun a : rkey * ReaderOrder.entry => negb (k_cur (fst a)) && (snd (fst (snd a)) =? kind)%N) (family_entries sp fixed curinf (snap_list f)))
  = match kind with 0%N => L - mid | 1%N => mid - lo | _ => 0 end.
Proof.
  rewrite (Permutation_length (perm_filter _ _ _ gfamily_perm)). unfold gtarget. rewrite filter_app, app_length.
  assert (Ec : length (filter (fun a : rkey * ReaderOrder.entry => negb (k_cur (fst a)) && (snd (fst (snd a)) =? kind)%N) cur_target) = 0).
  { unfold cur_target. destruct curo; reflexivity. }
  rewrite Ec, Nat.add_0_r.
  assert (Em : forall l, filter (fun a : rkey * ReaderOrder.entry => negb (k_cur (fst a)) && (snd (fst (snd a)) =? kind)%N) (List.map kentry l)
                         = List.map kentry (filter (fun i => (kkind i =? kind)%N) l)).
  { induction l as [|i l IH]; [reflexivity|]. cbn [List.map filter]. rewrite IH.
    change (snd (fst (snd (kentry i)))) with (kkind i). change (k_cur (fst (kentry i))) with false. cbn [negb andb].
    destruct (kkind i =? kind)%N; reflexivity. }
  rewrite Em, map_length.
  replace (seq lo (L - lo)) with (seq lo (mid - lo) ++ seq mid (L - mid)).
  2:{ replace (L - lo) with ((mid - lo) + (L - mid)) by lia. rewrite seq_app. f_equal. f_equal. lia. }
  rewrite filter_app, app_length.
  assert (K1 : forall i, i < mid -> kkind i = 1%N) by (intros i Hi; unfold kkind; destruct (Nat.leb_spec mid i); [lia | reflexivity]).
  assert (K0 : forall i, mid <= i -> kkind i = 0%N) by (intros i Hi; unfold kkind; destruct (Nat.leb_spec mid i); [reflexivity | lia]).
  destruct kind as [|[p|p|]].
  - rewrite count_seq_none by (intros i Hi; rewrite K1 by lia; reflexivity).
    rewrite count_seq_ge by (intros i Hi; rewrite K0 by lia; reflexivity). lia.
  - rewrite count_seq_none by (intros i Hi; rewrite K1 by lia; reflexivity).
    rewrite count_seq_none by (intros i Hi; rewrite K0 by lia; reflexivity). reflexivity.
  - rewrite count_seq_none by (intros i Hi; rewrite K1 by lia; reflexivity).
    rewrite count_seq_none by (intros i Hi; rewrite K0 by lia; reflexivity). reflexivity.
  - rewrite count_seq_ge by (intros i Hi; rewrite K1 by lia; reflexivity).
    rewrite count_seq_none by (intros i Hi; rewrite K0 by lia; reflexivity). lia.
Qed.
End GReader.

(* ------------------------------------------------------------------ the oracles, from the reader order *)
Lemma tail_of_skipn (all : list bytes) lo : is_suffix (concat (skipn lo all)) (concat all) = true.
Proof. rewrite <- (firstn_skipn lo all) at 2. rewrite concat_app. apply is_suffix_app. Qed.

Lemma rev_map_snoc {A B} (g : A -> B) l x : rev (List.map g (l ++ [x])) = g x :: rev (List.map g l).
Proof. rewrite map_app, rev_app_distr. reflexivity. Qed.

(* ------------------------------------------------------------------ TimestampsDirect *)
Theorem timestampsdirect_cleanup_reader c crit k n m t0 off ops closed cur :
  tsdkcfg c crit k -> klimd k = Some (n, m) -> tag_ok c -> sfx_ok (c_spec c) ->
  Forall basic_op ops -> Forall tick_ok ops ->
  (0 <= t0 + ts_e c off)%Z -> (t0 + elapsed ops + ts_e c off < sec_max)%Z -> (N.of_nat (length ops) <= usize_max)%N ->
  a_run None ops (snd (run (fst (step (sys0 t0 off) (OStart c))) ops)) = Some (closed, cur) ->
  let x := fst (run (sys0 t0 off) (OStart c :: ops ++ [OStop])) in
  (* the reader finds the surviving files in the order in which they were written: the last n + m of closed ++ [cur] *)
  family_in_order c (snap_of x) = skipn (S (length closed) - (n + m)) (closed ++ [cur])
  /\ concat closed ++ cur = written ops
  (* the C07 oracles accept the snapshot *)
  /\ oracle_tail c (written ops) (snap_of x) = true
  /\ oracle_limits c (snap_of x) = true
  /\ oracle_current_plain c (snap_of x) = true.
Proof.
  intros Hcfg Hk T Hsfx Hb Htk Hlo Hhi Hmax Ea x.
  pose proof (timestampsdirect_cleanup_stream c crit k t0 off ops Hcfg T Hsfx Hb Htk Hlo Hhi Hmax) as S. cbv zeta in S. rewrite Ea in S.
  fold x in S. destruct S as [Fl [[keys [V [Hko Hrg]]] _]]. cbn [flat] in Fl.
  unfold d_lo, d_mid in V. rewrite Hk in V. set (L := length closed) in *. set (lo := S L - (n + m)) in *. set (mid := S L - n) in *.
  pose proof (klimd_pos _ _ _ Hk) as Hn.
  destruct V as (Hlen & KD & Hmid & Hnc). set (e := ts_e c off) in *. set (all := closed ++ [cur]) in *.
  assert (Elen : length all = S L) by (unfold all; apply glen_snoc).
  assert (Y : years_ok e t0 (t0 + elapsed ops)) by (split; assumption).
  assert (Yk : forall key, In key keys -> in_years e (fst key)).
  { intros key Ik. apply (years_in e t0 (t0 + elapsed ops)); [exact Y | exact (Hrg key Ik)]. }
  assert (Hlen' : length keys = length all) by (rewrite Elen; exact Hlen).
  assert (Ec : cur_infix_of c = None) by (unfold cur_infix_of; rewrite (proj1 Hcfg); reflexivity).
  pose proof (greader_order c e (wfs (s_w x)) keys all lo mid None None Hsfx Hko Yk Hlen' KD (key_of_infix_none e) Hnc) as RO.
  pose proof (gtarget_contents c e (wfs (s_w x)) keys all lo mid None None Yk Hlen' KD Hnc) as GC. cbn [app] in GC. rewrite app_nil_r in GC.
  assert (FO : family_in_order c (snap_of x) = skipn lo all).
  { unfold family_in_order. rewrite Ec, snap_of_list. change (fixed_name_part (c_spec c) []) with (fixed0 c). rewrite RO. exact GC. }
  assert (Wr : written ops = concat all) by (unfold all; rewrite concat_app; cbn [concat]; rewrite app_nil_r; symmetry; exact Fl).
  split; [exact FO|]. split; [exact Fl|].
  split. { unfold oracle_tail, stream_of. rewrite FO, Wr. apply tail_of_skipn. }
  split.
  { unfold oracle_limits. rewrite (proj1 Hcfg). cbn [naming_writes_direct]. rewrite limits_of_direct, Hk.
    unfold count_kind, is_rotated. rewrite Ec, snap_of_list. change (fixed_name_part (c_spec c) []) with (fixed0 c).
    rewrite !(gcount c e (wfs (s_w x)) keys all lo mid None None Hsfx Hko Yk Hlen' KD (key_of_infix_none e) Hnc). rewrite Elen.
    apply andb_true_intro. split; [apply andb_true_intro; split; apply Nat.leb_le; unfold lo, mid; lia | reflexivity]. }
  unfold oracle_current_plain. rewrite Ec, snap_of_list. change (fixed_name_part (c_spec c) []) with (fixed0 c). rewrite RO.
  unfold gtarget, cur_target. rewrite app_nil_r, Elen.
  replace (S L - lo) with ((L - lo) + 1) by (unfold lo; lia). rewrite seq_app. cbn [seq]. replace (lo + (L - lo)) with L by (unfold lo; lia).
  rewrite !map_app, rev_app_distr. cbn [List.map rev app]. unfold kentry, kkind. cbn [snd fst]. destruct (Nat.leb_spec mid L); [reflexivity | lia].
Qed.
Print Assumptions timestampsdirect_cleanup_reader.

(* ------------------------------------------------------------------ Timestamps *)
Theorem timestamps_cleanup_reader c crit k n m t0 off ops closed cur :
  tskcfg c crit k -> klim k = Some (n, m) -> tag_ok c -> sfx_ok (c_spec c) ->
  Forall basic_op ops -> Forall tick_ok ops ->
  (0 <= t0 + ts_e c off)%Z -> (t0 + elapsed ops + ts_e c off < sec_max)%Z -> (N.of_nat (length ops) <= usize_max)%N ->
  a_run None ops (snd (run (fst (step (sys0 t0 off) (OStart c))) ops)) = Some (closed, cur) ->
  let x := fst (run (sys0 t0 off) (OStart c :: ops ++ [OStop])) in
  (* the reader finds the last n + m closed files in the order of their closing, then rCURRENT *)
  family_in_order c (snap_of x) = skipn (length closed - (n + m)) closed ++ [cur]
  /\ concat closed ++ cur = written ops
  (* the C07 oracles accept the snapshot *)
  /\ oracle_tail c (written ops) (snap_of x) = true
  /\ oracle_limits c (snap_of x) = true
  /\ oracle_current_plain c (snap_of x) = true.
Proof.
  intros Hcfg Hk T Hsfx Hb Htk Hlo Hhi Hmax Ea x.
  pose proof (timestamps_cleanup_stream c crit k t0 off ops Hcfg T Hsfx Hb Htk Hlo Hhi Hmax) as S. cbv zeta in S. rewrite Ea in S.
  fold x in S. destruct S as [Fl [[keys [V [Hko Hrg]]] _]]. cbn [flat] in Fl.
  unfold k_lo, k_mid in V. rewrite Hk in V. set (L := length closed) in *. set (lo := L - (n + m)) in *. set (mid := L - n) in *.
  destruct V as (Hlen & KD & HC). set (e := ts_e c off) in *.
  assert (Y : years_ok e t0 (t0 + elapsed ops)) by (split; assumption).
  assert (Yk : forall key, In key keys -> in_years e (fst key)).
  { intros key Ik. apply (years_in e t0 (t0 + elapsed ops)); [exact Y | exact (Hrg key Ik)]. }
  assert (Ec : cur_infix_of c = Some cur_infix) by (unfold cur_infix_of; rewrite (proj1 Hcfg); reflexivity).
  assert (Hcur : Some cur_infix = Some cur_infix /\ exists j, lookup (wfs (s_w x)) (cname c) = Some j /\ plain (inode (wfs (s_w x)) j) /\ content (wfs (s_w x)) j = cur)
    by (split; [reflexivity | exact HC]).
  pose proof (greader_order c e (wfs (s_w x)) keys closed lo mid (Some cur) (Some cur_infix) Hsfx Hko Yk Hlen KD (key_of_infix e) Hcur) as RO.
  pose proof (gtarget_contents c e (wfs (s_w x)) keys closed lo mid (Some cur) (Some cur_infix) Yk Hlen KD Hcur) as GC.
  assert (FO : family_in_order c (snap_of x) = skipn lo closed ++ [cur]).
  { unfold family_in_order. rewrite Ec, snap_of_list. change (fixed_name_part (c_spec c) []) with (fixed0 c). rewrite RO. exact GC. }
  split; [exact FO|]. split; [exact Fl|].
  split.
  { unfold oracle_tail, stream_of. rewrite FO, <- Fl, concat_app. cbn [concat]. rewrite app_nil_r.
    rewrite <- (firstn_skipn lo closed) at 2. rewrite concat_app, <- app_assoc. apply is_suffix_app. }
  split.
  { unfold oracle_limits. rewrite (proj1 Hcfg). cbn [naming_writes_direct]. rewrite limits_of_plain, Hk.
    unfold count_kind, is_rotated. rewrite Ec, snap_of_list. change (fixed_name_part (c_spec c) []) with (fixed0 c).
    rewrite !(gcount c e (wfs (s_w x)) keys closed lo mid (Some cur) (Some cur_infix) Hsfx Hko Yk Hlen KD (key_of_infix e) Hcur). fold L.
    apply andb_true_intro. split; [apply andb_true_intro; split; apply Nat.leb_le; unfold lo, mid; lia | reflexivity]. }
  unfold oracle_current_plain. rewrite Ec, snap_of_list. change (fixed_name_part (c_spec c) []) with (fixed0 c). rewrite RO.
  unfold gtarget, cur_target. rewrite map_app, rev_app_distr. reflexivity.
Qed.
Print Assumptions timestamps_cleanup_reader.

(* ------------------------------------------------------------------ instances *)
Import String.StringSyntax.
Open Scope string_scope.

Example tk_reader_instance :
  let x := fst (run (sys0 0 0) (OStart (tk_cfg (KLogGz 2 2) "log") :: ext_ops ++ [OStop])) in
  family_in_order (tk_cfg (KLogGz 2 2) "log") (snap_of x) = [bs "c"; bs "d"; bs "e"; bs "f"]
  /\ oracle_tail (tk_cfg (KLogGz 2 2) "log") (written ext_ops) (snap_of x) = true
  /\ oracle_limits (tk_cfg (KLogGz 2 2) "log") (snap_of x) = true.
Proof.
  intros x. destruct (tk_bounds (KLogGz 2 2)) as (B1 & B2 & B3).
  pose proof (timestampsdirect_cleanup_reader _ (CSize 100) (KLogGz 2 2) 2 2 0 0 ext_ops _ _
                (tk_cfg_ok _ _) eq_refl (tk_tag_ok _) (tk_sfx_ok _) ext_ops_basic ext_ops_ticks B1 B2 B3 tk_view) as T.
  cbv zeta in T. fold x in T. destruct T as (R & _ & O1 & O2 & _). split; [exact R|]. split; [exact O1 | exact O2].
Qed.

Example sk_reader_instance :
  let x := fst (run (sys0 0 0) (OStart (sk_cfg (KLogGz 1 2) "log") :: ext_ops ++ [OStop])) in
  family_in_order (sk_cfg (KLogGz 1 2) "log") (snap_of x) = [bs "c"; bs "d"; bs "e"; bs "f"]
  /\ oracle_tail (sk_cfg (KLogGz 1 2) "log") (written ext_ops) (snap_of x) = true
  /\ oracle_limits (sk_cfg (KLogGz 1 2) "log") (snap_of x) = true.
Proof.
  intros x. destruct (sk_bounds (KLogGz 1 2)) as (B1 & B2 & B3).
  pose proof (timestamps_cleanup_reader _ (CSize 100) (KLogGz 1 2) 1 2 0 0 ext_ops _ _
                (sk_cfg_ok _ _) eq_refl (sk_tag_ok _) (sk_sfx_ok _) ext_ops_basic ext_ops_ticks B1 B2 B3 sk_view) as T.
  cbv zeta in T. fold x in T. destruct T as (R & _ & O1 & O2 & _). split; [exact R|]. split; [exact O1 | exact O2].
Qed.

(* with a clock that goes backwards the oracle rejects what TimestampsDirect naming leaves: the records "c" and "d" are lost *)
Example clock_backwards_oracle_rejects :
  oracle_tail (tk_cfg (KLog 1) "log") (written back_ops) (tk_final (KLog 1) "log" back_ops) = false.
Proof. vm_compute. reflexivity. Qed.
