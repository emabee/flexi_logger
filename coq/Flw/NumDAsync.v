(* NumbersDirect naming (r00000, r00001, ...; no rCURRENT): the write mode - Direct, BufWriter of any capacity,
   asynchronous with either - does not change WHAT is written (C15), and after flush() / after the drop of the writer
   nothing accepted stays behind in a buffer (C04).

   How the statements are obtained:
   - synchronous modes (c_async = false; any c_cap): the invariant RelD of NumDRun.v does not mention the capacity; new
     here is the flush step (flush_rel_d: afterwards nothing is pending, and the directory reads as the abstract view:
     reld_view);
   - asynchronous mode: AsyncSim.v / AsyncTransfer.v - the asynchronous run goes through the same worlds as the
     synchronous run with the same capacity (every message is consumed before the next operation starts: the scheduling
     assumption of the model and of the test harness), so every statement about the world carries over (to_sync).
   The configurations: numdmcfg c crit - NumbersDirect naming, no cleanup, no start-time part, no symlink, ANY mode;
   numdacfg: the asynchronous ones among them; numdcfg (NumDInv.v): the synchronous ones. *)
Require Import FL.Base.Bytes FL.Names.FileSpec FL.Flw.Model FL.Flw.ModelFacts FL.Flw.QuietFacts FL.Flw.NumInv FL.Flw.Run
  FL.Flw.NumRun FL.Oracles.O_Flw FL.Flw.NumTheorems FL.Flw.NumRestart FL.Flw.NumKillRestart FL.Flw.NumDInv
  FL.Flw.NumDRun FL.Flw.NumDTheorems FL.Flw.NumDRestart FL.Flw.NoPanic FL.Flw.NumAsync FL.Flw.AsyncSim
  FL.Flw.AsyncTransfer.
Import String.StringSyntax.
Open Scope nat_scope.

(* ------------------------------------------------------------------ configurations *)
Definition numdmcfg (c : config) (crit : criterion) : Prop :=
  c_rot c = Some (crit, NNumbersDirect, KNever) /\ fts (c_spec c) = false /\ c_symlink c = false.
Definition numdacfg (c : config) (crit : criterion) : Prop := numdmcfg c crit /\ c_async c = true.

Lemma numdmcfg_sync c crit : numdmcfg c crit -> numdcfg (sync_of c) crit.
Proof. intros [H1 [H2 H3]]. repeat split; assumption. Qed.
Lemma numdcfg_any c crit : numdcfg c crit -> numdmcfg c crit.
Proof. intros [H1 [H2 [H3 _]]]. repeat split; assumption. Qed.
Lemma numdmcfg_mode c1 c2 crit : same_but_mode c1 c2 -> numdmcfg c1 crit -> numdmcfg c2 crit.
Proof. intros [S1 [_ [S3 [_ [S5 _]]]]] [H1 [H2 H3]]. repeat split; congruence. Qed.

(* ------------------------------------------------------------------ synchronous modes: the flush step *)
(* the hypotheses of the simulation hold *)
Lemma numd_sync_ok c crit t0 off ops : numdcfg c crit -> Forall basic_op ops ->
  Forall obs_ok (snd (run (sys0 t0 off) (OStart c :: ops))) /\ quiet (s_w (fst (run (sys0 t0 off) (OStart c :: ops)))).
Proof.
  intros Hs Hb. apply sync_ok_from_start.
  - exact (run_ok_d _ crit Hs ops _ None (start_rel_d _ crit t0 off) Hb).
  - exact (reld_quiet _ _ _ _ (run_rel_d _ crit Hs ops _ None (start_rel_d _ crit t0 off) Hb)).
Qed.

(* a flush: the relation is kept, nothing is pending afterwards *)
Lemma flush_rel_d c crit x a : numdcfg c crit -> RelD c crit x a ->
  RelD c crit (fst (step x OFlush)) a /\ pending (fst (step x OFlush)) = [].
Proof.
  intros Hcfg R0. rewrite (step_sync_rel_d c crit x a OFlush Hcfg R0). cbn [sync_step].
  destruct R0 as [Ht [Ha R]]. destruct a as [[closed cur]|].
  - destruct R as [wr [roll [Es [I [V [Z RS]]]]]]. rewrite Es. cbn [st_of_d f_poisoned].
    destruct (flush_active_d c (s_w x) wr closed roll I) as [w' [wr' [E [I' [V' [P' S']]]]]].
    fold (st_of_d c (length closed) roll wr). rewrite E. cbn [fst]. split.
    + split; [exact Ht|]. split; [exact (same_env_acts _ _ S' Ha)|]. exists wr', roll. cbn [s_flw s_w].
      split; [reflexivity|]. split; [exact I'|]. split; [congruence|]. split; assumption.
    + erewrite pending_active by reflexivity. exact P'.
  - destruct R as [Es R]. rewrite Es. cbn [new_flw f_poisoned flush_state f_inner fst]. split.
    + split; [exact Ht|]. split; [exact Ha|]. split; [reflexivity | exact R].
    + apply (pending_initial _ c); reflexivity.
Qed.

(* with nothing pending the directory reads as the abstract view *)
Lemma reld_view c crit x a : RelD c crit x a -> pending x = [] -> direct_view c (wfs (s_w x)) (files_of a).
Proof.
  intros [_ [_ R]] P. destruct a as [[closed cur]|]; cbn [files_of].
  - destruct R as [wr [roll [Es [I [V _]]]]]. rewrite (pending_active _ _ _ wr _ Es eq_refl) in P.
    rewrite <- V. apply numdinv_direct_view; assumption.
  - apply direct_view_nil. apply R.
Qed.

(* C04, flush, synchronous modes: after  ops ++ [OFlush]  the directory holds everything written so far, as the files
   r00000 .. r(n) and nothing else; nothing is pending; for a size criterion the files are the greedy partition *)
Theorem numd_flush_durable_sync c crit t0 off ops :
  numdcfg c crit -> Forall basic_op ops ->
  let x := fst (run (sys0 t0 off) (OStart c :: ops ++ [OFlush])) in
  exists files, direct_view c (wfs (s_w x)) files /\ concat files = written ops
    /\ pending x = []
    /\ (forall m, crit = CSize m -> files = expected_files m None (items false ops)).
Proof.
  intros Hcfg Hb. cbn zeta. cbn [run]. destruct (step (sys0 t0 off) (OStart c)) as [x0 ob0] eqn:E0.
  pose proof (start_rel_d c crit t0 off) as R0. rewrite E0 in R0. cbn [fst] in R0.
  rewrite run_app. pose proof (run_rel_d c crit Hcfg ops x0 None R0 Hb) as R1. pose proof (run_length ops x0) as L.
  assert (HS : forall m, crit = CSize m -> a_run None ops (snd (run x0 ops)) = s_run m None ops).
  { intros m Hm. subst crit. apply (run_size_d c m Hcfg ops x0 None R0 Hb). }
  destruct (run x0 ops) as [x1 obs1]. cbn [fst snd] in *.
  destruct (flush_rel_d c crit x1 _ Hcfg R1) as [R2 P]. cbn [run]. destruct (step x1 OFlush) as [x2 ob2]. cbn [fst] in *.
  exists (files_of (a_run None ops obs1)). split; [exact (reld_view c crit x2 _ R2 P)|].
  split; [rewrite files_flat, a_run_flat; [reflexivity | exact Hb | exact L]|].
  split; [exact P|]. intros m Hm. rewrite (HS m Hm). apply s_run_none. exact Hb.
Qed.

(* ------------------------------------------------------------------ any mode: reduction to the synchronous run *)
Lemma numd_to_sync c crit t0 off ops :
  numdmcfg c crit -> Forall basic_op ops ->
  let r := run (sys0 t0 off) (OStart c :: ops) in
  let rs := run (sys0 t0 off) (OStart (sync_of c) :: ops) in
  let r' := run (sys0 t0 off) (OStart c :: ops ++ [OStop]) in
  let rs' := run (sys0 t0 off) (OStart (sync_of c) :: ops ++ [OStop]) in
  s_w (fst r) = s_w (fst rs) /\ pending (fst r) = pending (fst rs) /\ s_w (fst r') = s_w (fst rs').
Proof.
  intros Hcfg Hb. destruct (numd_sync_ok (sync_of c) crit t0 off ops (numdmcfg_sync _ _ Hcfg) Hb) as [K Q].
  exact (to_sync c t0 off ops Hb K Q).
Qed.

Lemma basic_snoc_flush ops : Forall basic_op ops -> Forall basic_op (ops ++ [OFlush]).
Proof. intros Hb. apply Forall_app. split; [exact Hb | repeat constructor]. Qed.

(* ------------------------------------------------------------------ the theorems, any mode *)
(* the stream: any criterion, any mode *)
Theorem numd_stream c crit t0 off ops :
  numdmcfg c crit -> Forall basic_op ops ->
  exists files, direct_view c (wfs (s_w (fst (run (sys0 t0 off) (OStart c :: ops ++ [OStop]))))) files
    /\ concat files = written ops.
Proof.
  intros Hcfg Hb. destruct (numd_to_sync c crit t0 off ops Hcfg Hb) as [_ [_ E]]. cbn zeta in E. rewrite E.
  change (direct_view c) with (direct_view (sync_of c)).
  apply (numbersdirect_stream (sync_of c) crit); [apply numdmcfg_sync; exact Hcfg | exact Hb].
Qed.

(* size criterion: the greedy partition, any mode *)
Theorem numd_partition c m t0 off ops :
  numdmcfg c (CSize m) -> Forall basic_op ops ->
  direct_view c (wfs (s_w (fst (run (sys0 t0 off) (OStart c :: ops ++ [OStop]))))) (expected_files m None (items false ops)).
Proof.
  intros Hcfg Hb. destruct (numd_to_sync c (CSize m) t0 off ops Hcfg Hb) as [_ [_ E]]. cbn zeta in E. rewrite E.
  change (direct_view c) with (direct_view (sync_of c)).
  apply (numbersdirect_partition (sync_of c) m); [apply numdmcfg_sync; exact Hcfg | exact Hb].
Qed.

(* C15: two configurations that differ in the write mode only - Direct, buffered with any capacity, asynchronous with
   either - leave, after the same operations and the drop of the writer, the same directory: the same file names
   r00000 .. r(n) (nm c1 = nm c2) with the same contents, the greedy partition of the written records and chunks, and
   nothing else *)
Theorem numd_modes c1 c2 m t0 off ops :
  same_but_mode c1 c2 -> numdmcfg c1 (CSize m) -> Forall basic_op ops ->
  let f1 := wfs (s_w (fst (run (sys0 t0 off) (OStart c1 :: ops ++ [OStop])))) in
  let f2 := wfs (s_w (fst (run (sys0 t0 off) (OStart c2 :: ops ++ [OStop])))) in
  exists files, direct_view c1 f1 files /\ direct_view c1 f2 files /\ direct_view c2 f2 files
    /\ files = expected_files m None (items false ops).
Proof.
  intros Hm H1 Hb. cbn zeta. pose proof (numdmcfg_mode c1 c2 _ Hm H1) as H2.
  exists (expected_files m None (items false ops)).
  pose proof (numd_partition c2 m t0 off ops H2 Hb) as V2.
  split; [apply numd_partition; assumption|]. split; [|split; [exact V2 | reflexivity]].
  apply (direct_view_spec c2 c1); [symmetry; apply Hm | exact V2].
Qed.

(* C04, flush, any mode.  Asynchronous mode: "after the flush" is after the writer thread has consumed the flush
   message - in the model and in the test harness that is before the next operation starts *)
Theorem numd_flush_durable c crit t0 off ops :
  numdmcfg c crit -> Forall basic_op ops ->
  let x := fst (run (sys0 t0 off) (OStart c :: ops ++ [OFlush])) in
  exists files, direct_view c (wfs (s_w x)) files /\ concat files = written ops
    /\ pending x = []
    /\ (forall m, crit = CSize m -> files = expected_files m None (items false ops)).
Proof.
  intros Hcfg Hb. cbn zeta.
  destruct (numd_to_sync c crit t0 off (ops ++ [OFlush]) Hcfg (basic_snoc_flush ops Hb)) as [E [P _]]. cbn zeta in E, P.
  rewrite E, P. change (direct_view c) with (direct_view (sync_of c)).
  apply (numd_flush_durable_sync (sync_of c) crit); [apply numdmcfg_sync; exact Hcfg | exact Hb].
Qed.

(* C04, drop of the writer (shutdown + drop of the last handle), any mode *)
Theorem numd_stop_durable c crit t0 off ops :
  numdmcfg c crit -> Forall basic_op ops ->
  let x := fst (run (sys0 t0 off) (OStart c :: ops ++ [OStop])) in
  exists files, direct_view c (wfs (s_w x)) files /\ concat files = written ops
    /\ pending x = [] /\ s_flw x = None
    /\ (forall m, crit = CSize m -> files = expected_files m None (items false ops)).
Proof.
  intros Hcfg Hb. cbn zeta. destruct (numd_stream c crit t0 off ops Hcfg Hb) as [files [V F]].
  pose proof (run_stop_flw (sys0 t0 off) (OStart c :: ops)) as Fl.
  exists files. split; [exact V|]. split; [exact F|]. split; [exact (pending_none _ Fl)|]. split; [exact Fl|].
  intros m Hm. subst crit. apply (direct_view_unique c _ _ _ V). apply numd_partition; assumption.
Qed.

(* flushed directories agree across the modes *)
Theorem numd_modes_flushed c1 c2 m t0 off ops :
  same_but_mode c1 c2 -> numdmcfg c1 (CSize m) -> Forall basic_op ops ->
  let x1 := fst (run (sys0 t0 off) (OStart c1 :: ops ++ [OFlush])) in
  let x2 := fst (run (sys0 t0 off) (OStart c2 :: ops ++ [OFlush])) in
  exists files, direct_view c1 (wfs (s_w x1)) files /\ direct_view c1 (wfs (s_w x2)) files
    /\ pending x1 = [] /\ pending x2 = [] /\ files = expected_files m None (items false ops).
Proof.
  intros Hm H1 Hb. cbn zeta. pose proof (numdmcfg_mode c1 c2 _ Hm H1) as H2.
  destruct (numd_flush_durable c1 (CSize m) t0 off ops H1 Hb) as [f1 [V1 [_ [P1 C1]]]].
  destruct (numd_flush_durable c2 (CSize m) t0 off ops H2 Hb) as [f2 [V2 [_ [P2 C2]]]]. cbn zeta in *.
  pose proof (C1 m eq_refl) as E1. pose proof (C2 m eq_refl) as E2. subst f1 f2.
  exists (expected_files m None (items false ops)).
  split; [exact V1|]. split; [apply (direct_view_spec c2 c1); [symmetry; apply Hm | exact V2]|].
  split; [exact P1|]. split; [exact P2 | reflexivity].
Qed.

(* ------------------------------------------------------------------ the asynchronous mode, spelled out *)
Theorem async_numd_stream c crit t0 off ops :
  numdacfg c crit -> Forall basic_op ops ->
  exists files, direct_view c (wfs (s_w (fst (run (sys0 t0 off) (OStart c :: ops ++ [OStop]))))) files
    /\ concat files = written ops.
Proof. intros [Hcfg _]. apply (numd_stream c crit). exact Hcfg. Qed.

Theorem async_numd_partition c m t0 off ops :
  numdacfg c (CSize m) -> Forall basic_op ops ->
  direct_view c (wfs (s_w (fst (run (sys0 t0 off) (OStart c :: ops ++ [OStop]))))) (expected_files m None (items false ops)).
Proof. intros [Hcfg _]. apply numd_partition. exact Hcfg. Qed.

(* an asynchronous and a synchronous (Direct or buffered) writer *)
Theorem async_sync_numd_same_files ca cs m t0 off ops :
  numdacfg ca (CSize m) -> numdcfg cs (CSize m) -> c_spec ca = c_spec cs -> Forall basic_op ops ->
  exists files,
    direct_view ca (wfs (s_w (fst (run (sys0 t0 off) (OStart ca :: ops ++ [OStop]))))) files
    /\ direct_view ca (wfs (s_w (fst (run (sys0 t0 off) (OStart cs :: ops ++ [OStop]))))) files.
Proof.
  intros Ha Hs Hsp Hb. exists (expected_files m None (items false ops)).
  split; [apply async_numd_partition; assumption|].
  apply (direct_view_spec cs ca); [symmetry; exact Hsp | apply numbersdirect_partition; assumption].
Qed.

(* what the caller of an asynchronous writer observes: every operation except a snapshot returns "ok, no rotation" - also
   the writes at which the writer thread rotates; after the drop there is no writer, the thread is gone, nothing is pending *)
Theorem async_numd_observations c crit t0 off ops :
  numdacfg c crit -> Forall basic_op ops ->
  let r := run (sys0 t0 off) (OStart c :: ops ++ [OStop]) in
  Forall2 aobs (OStart c :: ops ++ [OStop]) (snd r)
  /\ s_flw (fst r) = None /\ s_dead (fst r) = true /\ pending (fst r) = [].
Proof.
  intros [Hcfg Ha] Hb. cbn zeta.
  destruct (numd_sync_ok (sync_of c) crit t0 off ops (numdmcfg_sync _ _ Hcfg) Hb) as [K Q].
  destruct (async_transfer c t0 off ops Ha Hb K Q) as [_ [_ [Fa [Da O]]]].
  split; [exact O|]. split; [exact Fa|]. split; [exact Da | exact (pending_none _ Fa)].
Qed.

(* flush: as numd_flush_durable, and the writer thread is still running *)
Theorem async_numd_flush_durable c crit t0 off ops :
  numdacfg c crit -> Forall basic_op ops ->
  let x := fst (run (sys0 t0 off) (OStart c :: ops ++ [OFlush])) in
  exists files, direct_view c (wfs (s_w x)) files /\ concat files = written ops
    /\ pending x = [] /\ s_dead x = false
    /\ (forall m, crit = CSize m -> files = expected_files m None (items false ops)).
Proof.
  intros [Hcfg Ha] Hb. cbn zeta.
  destruct (numd_flush_durable c crit t0 off ops Hcfg Hb) as [files [V [F [P C]]]]. cbn zeta in *.
  exists files. split; [exact V|]. split; [exact F|]. split; [exact P|]. split; [|exact C].
  destruct (numd_sync_ok (sync_of c) crit t0 off (ops ++ [OFlush]) (numdmcfg_sync _ _ Hcfg) (basic_snoc_flush ops Hb)) as [K Q].
  destruct (async_transfer c t0 off (ops ++ [OFlush]) Ha (basic_snoc_flush ops Hb) K Q) as [S _].
  apply S.
Qed.

(* drop: as numd_stop_durable, and the writer thread has ended *)
Theorem async_numd_stop_durable c crit t0 off ops :
  numdacfg c crit -> Forall basic_op ops ->
  let x := fst (run (sys0 t0 off) (OStart c :: ops ++ [OStop])) in
  exists files, direct_view c (wfs (s_w x)) files /\ concat files = written ops
    /\ pending x = [] /\ s_flw x = None /\ s_dead x = true
    /\ (forall m, crit = CSize m -> files = expected_files m None (items false ops)).
Proof.
  intros [Hcfg Ha] Hb. cbn zeta.
  destruct (numd_stop_durable c crit t0 off ops Hcfg Hb) as [files [V [F [P [Fl C]]]]]. cbn zeta in *.
  exists files. split; [exact V|]. split; [exact F|]. split; [exact P|]. split; [exact Fl|]. split; [|exact C].
  apply (async_numd_observations c crit t0 off ops (conj Hcfg Ha) Hb).
Qed.

(* the asynchronous writer and the synchronous writer of the same capacity go through the very same worlds (file system,
   clock, error channel), with and without the final drop - ANY criterion; the caller's observations differ in the rotation
   flag only, which the asynchronous caller never sees *)
Theorem async_numd_worlds c crit t0 off ops :
  numdacfg c crit -> Forall basic_op ops ->
  let ra := run (sys0 t0 off) (OStart c :: ops) in
  let rs := run (sys0 t0 off) (OStart (sync_of c) :: ops) in
  let ra' := run (sys0 t0 off) (OStart c :: ops ++ [OStop]) in
  let rs' := run (sys0 t0 off) (OStart (sync_of c) :: ops ++ [OStop]) in
  s_w (fst ra) = s_w (fst rs) /\ snd ra = List.map no_rot (snd rs)
  /\ s_w (fst ra') = s_w (fst rs') /\ snd ra' = List.map no_rot (snd rs').
Proof.
  intros [Hcfg Ha] Hb.
  exact (async_worlds c t0 off ops Ha Hb (numd_sync_ok (sync_of c) crit t0 off ops (numdmcfg_sync _ _ Hcfg) Hb)).
Qed.

Print Assumptions numd_flush_durable_sync.
Print Assumptions numd_stream.
Print Assumptions numd_partition.
Print Assumptions numd_modes.
Print Assumptions numd_flush_durable.
Print Assumptions numd_stop_durable.
Print Assumptions numd_modes_flushed.
Print Assumptions async_numd_stream.
Print Assumptions async_numd_partition.
Print Assumptions async_sync_numd_same_files.
Print Assumptions async_numd_observations.
Print Assumptions async_numd_flush_durable.
Print Assumptions async_numd_stop_durable.
Print Assumptions async_numd_worlds.

(* ------------------------------------------------------------------ "the same directory", literally *)
Lemma direct_view_same_dir c f1 f2 files : direct_view c f1 files -> direct_view c f2 files -> same_dir f1 f2.
Proof.
  intros [A1 B1] [A2 B2]. apply (same_dir_of_entries f1 f2 (rname c) (fun i => nth i files []) (length files)); assumption.
Qed.

(* C15 once more: the two final directories are the same map from names to files (kind, content) *)
Theorem numd_modes_same_dir c1 c2 m t0 off ops :
  same_but_mode c1 c2 -> numdmcfg c1 (CSize m) -> Forall basic_op ops ->
  same_dir (wfs (s_w (fst (run (sys0 t0 off) (OStart c1 :: ops ++ [OStop])))))
           (wfs (s_w (fst (run (sys0 t0 off) (OStart c2 :: ops ++ [OStop]))))).
Proof.
  intros Hm H1 Hb. destruct (numd_modes c1 c2 m t0 off ops Hm H1 Hb) as [files [V1 [V2 _]]]. cbn zeta in *.
  exact (direct_view_same_dir c1 _ _ files V1 V2).
Qed.
Print Assumptions numd_modes_same_dir.

(* ------------------------------------------------------------------ examples *)
Section Examples.
Open Scope string_scope.
(* app_r0000i.log, rotation when the current file holds more than 3 bytes *)
Definition exdm (cap : option nat) (async : bool) : config := with_mode (exd_cfg (ex_sp "log") false (CSize 3) None) cap async.
Definition exdm_direct := exdm None false.
Definition exdm_buffered := exdm (Some 4%nat) false.
Definition exdm_async := exdm (Some 4%nat) true.        (* the writer thread writes through a BufWriter of 4 bytes *)
Definition exdm_async_unbuffered := exdm None true.

Definition exdm_hist : list op :=
  [OTrigger; OWrite (bs "abcd"); OWrite (bs "ef"); OSnap; OFlush; OSnap; OTrigger; OPlain (bs "g"); OTick 5; OWrite (bs "hijkl"); OWrite (bs "m")].

(* the hypotheses are satisfiable *)
Example exdm_hyps :
  numdcfg exdm_direct (CSize 3) /\ numdcfg exdm_buffered (CSize 3) /\ numdacfg exdm_async (CSize 3)
  /\ numdacfg exdm_async_unbuffered (CSize 3) /\ Forall basic_op exdm_hist
  /\ same_but_mode exdm_direct exdm_buffered /\ same_but_mode exdm_direct exdm_async /\ same_but_mode exdm_buffered exdm_async_unbuffered.
Proof. repeat split; repeat constructor. Qed.

Definition exdm_dir : list (bytes * N * bytes) :=
  [ (bs "app_r00000.log", 0%N, bs "abcd"); (bs "app_r00001.log", 0%N, bs "ef"); (bs "app_r00002.log", 0%N, bs "ghijkl");
    (bs "app_r00003.log", 0%N, bs "m") ].

(* the directory after the history and the drop of the writer: the same in the four modes *)
Example exdm_dir_direct : snap_of (fst (run (sys0 0 0) (OStart exdm_direct :: exdm_hist ++ [OStop]))) = exdm_dir.
Proof. vm_compute. reflexivity. Qed.
Example exdm_dir_buffered : snap_of (fst (run (sys0 0 0) (OStart exdm_buffered :: exdm_hist ++ [OStop]))) = exdm_dir.
Proof. vm_compute. reflexivity. Qed.
Example exdm_dir_async : snap_of (fst (run (sys0 0 0) (OStart exdm_async :: exdm_hist ++ [OStop]))) = exdm_dir.
Proof. vm_compute. reflexivity. Qed.
Example exdm_dir_async_unbuffered : snap_of (fst (run (sys0 0 0) (OStart exdm_async_unbuffered :: exdm_hist ++ [OStop]))) = exdm_dir.
Proof. vm_compute. reflexivity. Qed.
Example exdm_dir_expected : expected_files 3 None (items false exdm_hist) = [bs "abcd"; bs "ef"; bs "ghijkl"; bs "m"].
Proof. vm_compute. reflexivity. Qed.

(* instance of numd_modes: Direct against asynchronous-buffered *)
Example exdm_modes_instance :
  let f1 := wfs (s_w (fst (run (sys0 0 0) (OStart exdm_direct :: exdm_hist ++ [OStop])))) in
  let f2 := wfs (s_w (fst (run (sys0 0 0) (OStart exdm_async :: exdm_hist ++ [OStop])))) in
  direct_view exdm_direct f1 [bs "abcd"; bs "ef"; bs "ghijkl"; bs "m"] /\ direct_view exdm_direct f2 [bs "abcd"; bs "ef"; bs "ghijkl"; bs "m"].
Proof.
  destruct (numd_modes exdm_direct exdm_async 3 0 0 exdm_hist) as [files [V1 [V2 [_ E]]]];
    [repeat split | repeat split | repeat constructor|].
  cbn zeta in *. rewrite exdm_dir_expected in E. subst files. split; [exact V1 | exact V2].
Qed.

(* the snapshots before and after the flush: with a BufWriter of 4 bytes the record "ef" is still pending at the first
   one - in buffered and in asynchronous mode alike - and on the disk at the second, in every mode *)
Definition exdm_snap (cur : bytes) : obs :=
  ObsSnap [(bs "app_r00000.log", 0%N, bs "abcd"); (bs "app_r00001.log", 0%N, cur)] None [].
Example exdm_snaps_direct : snaps exdm_direct exdm_hist = [exdm_snap (bs "ef"); exdm_snap (bs "ef")].
Proof. vm_compute. reflexivity. Qed.
Example exdm_snaps_buffered : snaps exdm_buffered exdm_hist = [exdm_snap (bs ""); exdm_snap (bs "ef")].
Proof. vm_compute. reflexivity. Qed.
Example exdm_snaps_async : snaps exdm_async exdm_hist = [exdm_snap (bs ""); exdm_snap (bs "ef")].
Proof. vm_compute. reflexivity. Qed.
Example exdm_snaps_async_unbuffered : snaps exdm_async_unbuffered exdm_hist = [exdm_snap (bs "ef"); exdm_snap (bs "ef")].
Proof. vm_compute. reflexivity. Qed.

(* the rotation flags: the synchronous caller sees the rotation at the writes of "ef" and of "m", the asynchronous never *)
Example exdm_flags_buffered : rots_seen exdm_buffered exdm_hist
  = [false; false; false; true; false; false; false; false; false; false; false; true; false]%bool.
Proof. vm_compute. reflexivity. Qed.
Example exdm_flags_async : rots_seen exdm_async exdm_hist
  = [false; false; false; false; false; false; false; false; false; false; false; false; false]%bool.
Proof. vm_compute. reflexivity. Qed.

(* instance of async_numd_flush_durable: the prefix of the history up to the record "ef", then a flush *)
Example exdm_flush_instance :
  let x := fst (run (sys0 0 0) (OStart exdm_async :: [OTrigger; OWrite (bs "abcd"); OWrite (bs "ef")] ++ [OFlush])) in
  direct_view exdm_async (wfs (s_w x)) [bs "abcd"; bs "ef"] /\ pending x = [] /\ s_dead x = false.
Proof.
  destruct (async_numd_flush_durable exdm_async (CSize 3) 0 0 [OTrigger; OWrite (bs "abcd"); OWrite (bs "ef")])
    as [files [V [_ [P [D C]]]]]; [repeat split | repeat constructor|].
  cbn zeta in *. rewrite (C 3%N eq_refl) in V. split; [exact V | split; [exact P | exact D]].
Qed.

(* NOT covered by numd_modes (size criterion only): an age criterion.  The rotation decision depends on the clock and on the
   creation time of the current file, not on the buffer; the four modes agree on this history (computed) *)
Definition exdm_age (cap : option nat) (async : bool) : config := with_mode (exd_cfg exd_sp2 false (CAge ADay) None) cap async.
Example exdm_age_modes_agree :
  let dir c := snap_of (fst (run (sys0 0 0) (OStart c :: exd_ops2 ++ [OStop]))) in
  dir (exdm_age None false) = [ (bs "srv_a1_r00000", 0%N, bs "x"); (bs "srv_a1_r00001", 0%N, bs "yz") ]
  /\ dir (exdm_age (Some 100%nat) false) = dir (exdm_age None false)
  /\ dir (exdm_age (Some 100%nat) true) = dir (exdm_age None false)
  /\ dir (exdm_age None true) = dir (exdm_age None false).
Proof. vm_compute. repeat split; reflexivity. Qed.
End Examples.
