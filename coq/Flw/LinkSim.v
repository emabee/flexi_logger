(* The configured symlink (FileLogWriterBuilder::create_symlink).

   1. Model.v looks at c_symlink and at the world's link in one place only: do_symlink, called by open_log_file before
      the file is opened.  While no kill is pending (OSetKill is not an operation of these histories) the two calls of
      do_symlink - remove the old link, create the new one - always happen and consume nothing (no fault-oracle entry):
      the link is set to the path that is about to be opened (WorldPar.do_symlink_X).
   2. Hence (WorldPar: the rest of the model does not inspect the link) the run under c and the run under
      nolink c (c with c_symlink := false) go through worlds that are equal except for the link, with the same writer
      states (up to the configuration) and the same observations except for the link component of snapshots:
      LSim, step_lsim, run_lsim, link_sim_whole.  No hypothesis on faults or on the results: the fault oracle may be
      loaded, results may be errors or panics, the write mode may be asynchronous.
   3. symlink_points_to_current: for a synchronous writer, if the run returns normal results and reports nothing on the
      error channel (in particular no rotation fails under way - what the families of the end-to-end theorems guarantee),
      then after every operation: writer state Active _ _ path -> link = Some path; writer state Initial -> the link is
      what it was at the start.  Without that hypothesis the statement is false: the link is created BEFORE the file is
      opened, so a failing open leaves the link pointing to a file that does not exist while the writer goes on
      writing to the old one (ex_link_fault).
   4. Transfer: the stream / partition / no-panic theorems for configurations WITH symlink. *)
Require Import FL.Base.Bytes FL.Base.BytesFacts FL.Base.PathName FL.Fs.Fs FL.Fs.FsFacts FL.Time.Civil FL.Time.TsFormat
  FL.Names.FileSpec FL.Names.NamesFacts FL.Flw.Model FL.Flw.ModelFacts FL.Flw.NumFs FL.Flw.NumInv FL.Flw.Run FL.Flw.RunFacts
  FL.Flw.NumRun FL.Oracles.O_Flw FL.Flw.NumTheorems FL.Flw.NumListing FL.Flw.NumRestart FL.Flw.NumKillRestart
  FL.Flw.NumDInv FL.Flw.NumDRun FL.Flw.NumDTheorems
  FL.Flw.TsCal FL.Flw.TsTime FL.Flw.TsNames FL.Flw.TsInv FL.Flw.TsRun FL.Flw.TsTheorems
  FL.Flw.TsdInv FL.Flw.TsdRun FL.Flw.TsdTheorems
  FL.Flw.CleanupFacts FL.Flw.NumCleanupNames FL.Flw.NumCleanupStep FL.Flw.NumCleanupRun FL.Flw.NumCleanup
  FL.Flw.NoPanic FL.Flw.NumCfg0 FL.Flw.NumAsync FL.Flw.AsyncSim FL.Flw.WorldPar.
From Coq Require Import ZifyN ZifyNat ZifyBool.
Open Scope nat_scope.

(* ------------------------------------------------------------------ the state machine under c and under nolink c *)
Definition unl (s : flw) : flw :=
  {| f_cfg := nolink (f_cfg s); f_inner := f_inner s; f_poisoned := f_poisoned s |}.

Ltac link_norm :=
  unfold initialize, initialize_g, mount_next, mount_next_g, next_naming, finish_rotation, init_naming, latest_timestamp_file,
    creation_ts_of_current, collision_free, index_for_rcurrent, cleanup_or_queue, cleanup_impl, infix_from_ts, name_of, fixed_of, starttxt;
  cbn [nolink c_spec c_append c_cap c_rot c_utc c_bg c_async c_start].

Lemma initialize_nolink c w : initialize (nolink c) w = initialize_g (open_log_file (nolink c)) c w.
Proof. link_norm. reflexivity. Qed.
Lemma mount_next_nolink c w st f : mount_next (nolink c) w st f = mount_next_g (open_log_file (nolink c)) c w st f.
Proof. link_norm. reflexivity. Qed.

Lemma write_buffer_unl s w b :
  write_buffer (unl s) w b
  = let '(r, w', s', rot) := write_buffer_g (open_log_file (nolink (f_cfg s))) s w b in (r, w', unl s', rot).
Proof.
  unfold write_buffer, write_buffer_g, init_part, write_rest. cbn [unl f_cfg f_inner]. rewrite initialize_nolink.
  destruct (f_inner s) as [|o wr p].
  - destruct (initialize_g (open_log_file (nolink (f_cfg s))) (f_cfg s) w) as [[i| |] w0]; try reflexivity.
    rewrite mount_next_nolink. destruct (mount_next_g (open_log_file (nolink (f_cfg s))) (f_cfg s) w0 i false) as [[r1 w1] st1].
    destruct r1 as [u| |]; try reflexivity; destruct st1 as [|o1 wr1 p1]; try reflexivity;
      destruct (w_write _ wr1 b) as [[ok w3] wr']; destruct ok; reflexivity.
  - rewrite mount_next_nolink.
    destruct (mount_next_g (open_log_file (nolink (f_cfg s))) (f_cfg s) w (Active o wr p) false) as [[r1 w1] st1].
    destruct r1 as [u| |]; try reflexivity; destruct st1 as [|o1 wr1 p1]; try reflexivity;
      destruct (w_write _ wr1 b) as [[ok w3] wr']; destruct ok; reflexivity.
Qed.

Lemma flush_state_unl s w : flush_state (unl s) w = let '(ok, w', s') := flush_state s w in (ok, w', unl s').
Proof.
  unfold flush_state. cbn [unl f_inner]. destruct (f_inner s) as [|o wr p]; [reflexivity|].
  destruct (w_flush w wr) as [[ok w1] wr']. reflexivity.
Qed.
Lemma shutdown_state_unl s w : shutdown_state (unl s) w = let '(w', s') := shutdown_state s w in (w', unl s').
Proof.
  unfold shutdown_state, drain_acts. cbn [unl f_inner]. destruct (f_inner s) as [|o wr p]; [reflexivity|].
  destruct (w_flush w wr) as [[ok w1] wr']. reflexivity.
Qed.
Lemma drop_state_unl s w : drop_state (unl s) w = drop_state s w.
Proof.
  unfold drop_state. rewrite shutdown_state_unl. destruct (shutdown_state s w) as [w1 s1].
  rewrite shutdown_state_unl. destruct (shutdown_state s1 w1) as [w2 s2]. reflexivity.
Qed.
Lemma ensure_start_unl s w : ensure_start (unl s) w = unl (ensure_start s w).
Proof.
  unfold ensure_start. cbn [unl f_cfg nolink c_spec c_start]. destruct (fts (c_spec (f_cfg s))); [|reflexivity].
  destruct (c_start (f_cfg s)); reflexivity.
Qed.

(* flush and shutdown keep the path *)
Lemma flush_state_path s w ok w' s' : flush_state s w = (ok, w', s') ->
  forall l0 l, link_st l0 l (f_inner s) -> link_st l0 l (f_inner s').
Proof.
  unfold flush_state. destruct (f_inner s) as [|o wr p] eqn:Ei; [intros E; injection E as _ _ <-; rewrite Ei; auto|].
  destruct (w_flush w wr) as [[ok1 w1] wr']. intros E; injection E as _ _ <-. auto.
Qed.
Lemma shutdown_state_path s w w' s' : shutdown_state s w = (w', s') ->
  forall l0 l, link_st l0 l (f_inner s) -> link_st l0 l (f_inner s').
Proof.
  unfold shutdown_state. destruct (f_inner s) as [|o wr p] eqn:Ei; [intros E; injection E as _ <-; rewrite Ei; auto|].
  destruct (w_flush (drain_acts s w) wr) as [[ok1 w1] wr']. intros E; injection E as _ <-. auto.
Qed.

(* write_buffer, mount_next, flush_state and shutdown_state from two worlds that differ in the link (l with symlink, l0
   without): same result, same rest of the world *)
Lemma write_pair s n w b l l0 :
  exists r w' s' rot n' l',
    write_buffer s (X l [] n w) b = (r, X l' [] n' w', s', rot)
    /\ write_buffer (unl s) (X l0 [] n w) b = (r, X l0 [] n' w', unl s', rot)
    /\ (exists e, werrs w' = werrs w ++ e)
    /\ (c_symlink (f_cfg s) = true -> r = Ok tt -> werrs w' = werrs w ->
        link_st l0 l (f_inner s) -> link_st l0 l' (f_inner s')).
Proof.
  destruct (write_buffer_g_pair _ _ _ (OPs_nolink (f_cfg s)) s n w b) as [r [w' [s' [rot [n' [ol [A [B [Gr G]]]]]]]]].
  exists r, w', s', rot, n', (upd ol l). split; [rewrite write_buffer_g_eq; apply B|].
  split; [rewrite write_buffer_unl, A; reflexivity|]. split; [exact Gr|]. intros Hs Hr He H. exact (G Hs Hr He l0 l H).
Qed.

Lemma mount_pair c n w st f l l0 :
  exists r w' st' n' l',
    mount_next c (X l [] n w) st f = (r, X l' [] n' w', st')
    /\ mount_next (nolink c) (X l0 [] n w) st f = (r, X l0 [] n' w', st')
    /\ (c_symlink c = true -> r = Ok tt -> link_st l0 l st -> link_st l0 l' st').
Proof.
  destruct (mount_next_g_pair _ _ _ (OPs_nolink c) c n w st f) as [r [w' [st' [n' [ol [A [B G]]]]]]].
  exists r, w', st', n', (upd ol l). split; [rewrite mount_next_g_eq; apply B|].
  split; [rewrite mount_next_nolink; apply A|]. intros Hs Hr H. exact (G Hs Hr l0 l H).
Qed.

Lemma flush_pair s n w l l0 :
  exists ok w' s',
    flush_state s (X l [] n w) = (ok, X l [] n w', s')
    /\ flush_state (unl s) (X l0 [] n w) = (ok, X l0 [] n w', unl s').
Proof.
  destruct (flush_state_U s w) as [ok [w' [s' E]]]. exists ok, w', s'. split; [apply E|]. rewrite flush_state_unl, E. reflexivity.
Qed.

Lemma shutdown_pair s n w l l0 :
  exists w' s',
    shutdown_state s (X l [] n w) = (X l [] n w', s')
    /\ shutdown_state (unl s) (X l0 [] n w) = (X l0 [] n w', unl s').
Proof.
  destruct (shutdown_state_U s w) as [w' [s' E]]. exists w', s'. split; [apply E|]. rewrite shutdown_state_unl, E. reflexivity.
Qed.

(* ------------------------------------------------------------------ the simulation *)
(* xs: the system whose writer has the configuration c; xn: the one with nolink c.  The worlds differ in the link only
   (and no kill is pending), the writer states in the configuration only *)
Definition LSim (l0 : option bytes) (xs xn : sys) : Prop :=
  exists w n l s, s_w xs = X l [] n w /\ s_w xn = X l0 [] n w /\ s_tl xs = s_tl xn /\ s_dead xs = s_dead xn
    /\ s_flw xs = Some s /\ s_flw xn = Some (unl s).

(* the link is consistent with the writer state (claimed for the synchronous handle only, see step_core_lsim) *)
Definition link_ok (xs xn : sys) : Prop :=
  forall s, s_flw xs = Some s ->
    c_symlink (f_cfg s) = true /\ c_async (f_cfg s) = false /\ link_st (wlink (s_w xn)) (wlink (s_w xs)) (f_inner s).

(* a snapshot shows the link *)
Definition obs_unlink (ob : obs) : obs := match ob with ObsSnap f _ e => ObsSnap f None e | _ => ob end.

Lemma lsim_worlds l0 xs xn : LSim l0 xs xn ->
  wfs (s_w xs) = wfs (s_w xn) /\ wnow (s_w xs) = wnow (s_w xn) /\ woff (s_w xs) = woff (s_w xn)
  /\ wfaults (s_w xs) = wfaults (s_w xn) /\ wkill (s_w xs) = None /\ wkill (s_w xn) = None
  /\ werrs (s_w xs) = werrs (s_w xn) /\ wacts (s_w xs) = wacts (s_w xn).
Proof. intros [w [n [l [s [-> [-> _]]]]]]. repeat split. Qed.

Ltac sys_destruct xs xn :=
  destruct xs as [fs_ ws_ ts_ ds_]; destruct xn as [fn_ wn_ tn_ dn_]; cbn [s_flw s_w s_tl s_dead] in *; subst.

Lemma apply_start_lsim l0 xs xn o : LSim l0 xs xn ->
  LSim l0 (apply_start xs o) (apply_start xn o) /\ (link_ok xs xn -> link_ok (apply_start xs o) (apply_start xn o)).
Proof.
  intros [w [n [l [s [Ews [Ewn [Et [Hd [Es En]]]]]]]]]. sys_destruct xs xn. unfold apply_start. cbn [s_flw unl f_poisoned s_w].
  destruct (names_computed o && negb (f_poisoned s)).
  - split.
    + exists w, n, l, (ensure_start s (X l [] n w)). cbn [s_flw s_w s_tl s_dead]. repeat split.
      rewrite ensure_start_unl. unfold ensure_start. xs. reflexivity.
    + intros LK s2 H2. cbn [s_flw s_w] in *. injection H2 as <-.
      assert (Ei : f_inner (ensure_start s (X l [] n w)) = f_inner s
                   /\ c_symlink (f_cfg (ensure_start s (X l [] n w))) = c_symlink (f_cfg s)
                   /\ c_async (f_cfg (ensure_start s (X l [] n w))) = c_async (f_cfg s)).
      { unfold ensure_start. destruct (fts (c_spec (f_cfg s))); [|repeat split]. destruct (c_start (f_cfg s)); repeat split. }
      destruct Ei as [Ei [Ec Ea]]. rewrite Ei, Ec, Ea. exact (LK s eq_refl).
  - split; [exists w, n, l, s; repeat split | intros LK; exact LK].
Qed.

(* the synchronous handle *)
Lemma sync_step_lsim l0 xs xn o : LSim l0 xs xn -> basic_op o ->
  LSim l0 (fst (sync_step xs o)) (fst (sync_step xn o))
  /\ obs_unlink (snd (sync_step xs o)) = obs_unlink (snd (sync_step xn o))
  /\ (link_ok xs xn -> obs_ok (snd (sync_step xn o)) -> werrs (s_w (fst (sync_step xn o))) = werrs (s_w xn) ->
      link_ok (fst (sync_step xs o)) (fst (sync_step xn o))).
Proof.
  intros [w [n [l [s [Ews [Ewn [Et [Hd [Es En]]]]]]]]] Hb. sys_destruct xs xn.
  assert (LK0 : link_ok {| s_flw := Some s; s_w := X l [] n w; s_tl := tn_; s_dead := dn_ |}
                        {| s_flw := Some (unl s); s_w := X l0 [] n w; s_tl := tn_; s_dead := dn_ |} ->
                c_symlink (f_cfg s) = true /\ c_async (f_cfg s) = false /\ link_st l0 l (f_inner s)).
  { intros LK. exact (LK s eq_refl). }
  destruct o; try contradiction; cbn [sync_step s_flw s_w s_tl s_dead unl f_poisoned].
  - (* OWrite *)
    destruct (f_poisoned s) eqn:Hp.
    + cbn [fst snd]. split; [exists w, n, l, s; repeat split|]. split; [reflexivity|]. intros LK _ _ s2 H2. exact (LK s2 H2).
    + destruct (write_pair s n w (tn_ ++ b) l l0) as [r [w' [s' [rot [n' [l' [A [B [[e Gr] G]]]]]]]]].
      fold (unl s). rewrite A, B. destruct (write_buffer_keeps _ _ _ _ _ _ _ A) as [Kc _]. cbn [fst snd].
      split; [|split; [reflexivity|]].
      * destruct r as [u| |]; rewrite ?report_X; eexists _, n', l', s'; cbn [s_flw s_w s_tl s_dead]; repeat split.
      * intros LK Hok He s2 H2. cbn [s_flw s_w] in *. injection H2 as <-. rewrite Kc. destruct (LK0 LK) as [Hs2 [Ha2 L2]].
        split; [exact Hs2|]. split; [exact Ha2|].
        destruct r as [[]| |]; [| |discriminate Hok].
        -- xs. cbn [app] in He. exact (G Hs2 eq_refl He L2).
        -- exfalso. rewrite report_X in He. cbn [X rep werrs app] in He. rewrite Gr, <- app_assoc in He.
           apply app_self_nil in He. destruct e; discriminate He.
  - (* OPlain *)
    destruct (f_poisoned s) eqn:Hp.
    + cbn [fst snd]. split; [exists w, n, l, s; repeat split|]. split; [reflexivity|]. intros LK _ _ s2 H2. exact (LK s2 H2).
    + destruct (write_pair s n w b l l0) as [r [w' [s' [rot [n' [l' [A [B [[e Gr] G]]]]]]]]].
      fold (unl s). rewrite A, B. destruct (write_buffer_keeps _ _ _ _ _ _ _ A) as [Kc _]. cbn [fst snd].
      split; [exists w', n', l', s'; repeat split|]. split; [reflexivity|].
      intros LK Hok He s2 H2. cbn [s_flw s_w] in *. injection H2 as <-. rewrite Kc. destruct (LK0 LK) as [Hs2 [Ha2 L2]].
      split; [exact Hs2|]. split; [exact Ha2|].
      destruct r as [[]| |]; [|discriminate Hok|discriminate Hok].
      xs. cbn [app] in He. exact (G Hs2 eq_refl He L2).
  - (* OFlush *)
    destruct (f_poisoned s) eqn:Hp.
    + cbn [fst snd]. split; [exists w, n, l, s; repeat split|]. split; [reflexivity|]. intros LK _ _ s2 H2. exact (LK s2 H2).
    + destruct (flush_pair s n w l l0) as [ok [w' [s' [A B]]]]. fold (unl s). rewrite A, B.
      destruct (flush_state_keeps _ _ _ _ _ A) as [Kc _]. cbn [fst snd].
      split; [exists w', n, l, s'; repeat split|]. split; [reflexivity|].
      intros LK _ _ s2 H2. cbn [s_flw s_w] in *. injection H2 as <-. rewrite Kc. destruct (LK0 LK) as [Hs2 [Ha2 L2]].
      split; [exact Hs2|]. split; [exact Ha2|]. xs. exact (flush_state_path _ _ _ _ _ A _ _ L2).
  - (* OTrigger *)
    destruct (f_poisoned s) eqn:Hp.
    + cbn [fst snd]. split; [exists w, n, l, s; repeat split|]. split; [reflexivity|]. intros LK _ _ s2 H2. exact (LK s2 H2).
    + cbn [unl f_cfg f_inner].
      destruct (mount_pair (f_cfg s) n w (f_inner s) true l l0) as [r [w' [st' [n' [l' [A [B G]]]]]]]. rewrite A, B. cbn [fst snd].
      split; [|split; [reflexivity|]].
      * exists w', n', l', (match r with Panic => poison (with_inner s st') | _ => with_inner s st' end).
        cbn [s_flw s_w s_tl s_dead]. repeat split. destruct r; reflexivity.
      * intros LK Hok _ s2 H2. cbn [s_flw s_w] in *. injection H2 as <-. destruct (LK0 LK) as [Hs2 [Ha2 L2]].
        destruct r as [[]| |]; [|discriminate Hok|discriminate Hok]. cbn [with_inner f_cfg f_inner] in *.
        split; [exact Hs2|]. split; [exact Ha2|]. xs. exact (G Hs2 eq_refl L2).
  - (* OTick *)
    cbn [fst snd]. split; [exists (set_now w (wnow w + dt)%Z), n, l, s; repeat split|]. split; [reflexivity|].
    intros LK _ _ s2 H2. exact (LK s2 H2).
  - (* OSnap *)
    cbn [fst snd]. split; [exists w, n, l, s; repeat split|]. split; [reflexivity|]. intros LK _ _. exact LK.
Qed.

(* the asynchronous handle: a message is consumed by the writer thread *)
Lemma async_send_lsim l0 xs xn s m code : LSim l0 xs xn -> s_flw xs = Some s ->
  LSim l0 (fst (async_send xs s m code)) (fst (async_send xn (unl s) m code))
  /\ snd (async_send xs s m code) = snd (async_send xn (unl s) m code)
  /\ (forall s', s_flw (fst (async_send xs s m code)) = Some s' -> f_cfg s' = f_cfg s).
Proof.
  intros [w [n [l [s1 [Ews [Ewn [Et [Hd [Es En]]]]]]]]] Es'. sys_destruct xs xn. injection Es' as <-.
  unfold async_send. cbn [s_dead unl f_poisoned].
  destruct dn_; [cbn [fst snd]; split; [exists w, n, l, s1; repeat split | split; [reflexivity | intros s' H; cbn in H; congruence]]|].
  destruct (f_poisoned s1); [cbn [fst snd]; split; [exists w, n, l, s1; repeat split | split; [reflexivity | intros s' H; cbn in H; congruence]]|].
  cbn [fst snd]. split; [|split; [reflexivity|]]; unfold async_consume; cbn [s_w s_tl]; destruct m as [b| |].
  - destruct (write_pair s1 n w b l l0) as [r [w' [s' [rot [n' [l' [A [B _]]]]]]]]. fold (unl s1). rewrite A, B.
    destruct r as [u| |]; rewrite ?report_X; eexists _, n', l', s'; cbn [s_flw s_w s_tl s_dead]; repeat split.
  - destruct (flush_pair s1 n w l l0) as [ok [w' [s' [A B]]]]. fold (unl s1). rewrite A, B.
    destruct ok; rewrite ?report_X; eexists _, n, l, s'; cbn [s_flw s_w s_tl s_dead]; repeat split.
  - destruct (shutdown_pair s1 n w l l0) as [w' [s' [A B]]]. fold (unl s1). rewrite A, B.
    exists w', n, l, s'. cbn [s_flw s_w s_tl s_dead]. repeat split.
  - destruct (write_buffer s1 (X l [] n w) b) as [[[r w'] s'] rot] eqn:A. destruct (write_buffer_keeps _ _ _ _ _ _ _ A) as [Kc _].
    intros s2 H. cbn in H. congruence.
  - destruct (flush_state s1 (X l [] n w)) as [[ok w'] s'] eqn:A. destruct (flush_state_keeps _ _ _ _ _ A) as [Kc _].
    intros s2 H. cbn in H. congruence.
  - destruct (shutdown_state s1 (X l [] n w)) as [w' s'] eqn:A. destruct (shutdown_state_keeps _ _ _ _ A) as [Kc _].
    intros s2 H. cbn in H. congruence.
Qed.

(* one basic operation, either handle.  The consistency of the link is claimed for the synchronous handle: the
   asynchronous caller does not see the results of the writer thread *)
Lemma step_core_lsim l0 xs xn o : LSim l0 xs xn -> basic_op o ->
  LSim l0 (fst (step_core xs o)) (fst (step_core xn o))
  /\ obs_unlink (snd (step_core xs o)) = obs_unlink (snd (step_core xn o))
  /\ (link_ok xs xn -> obs_ok (snd (step_core xn o)) -> werrs (s_w (fst (step_core xn o))) = werrs (s_w xn) ->
      link_ok (fst (step_core xs o)) (fst (step_core xn o))).
Proof.
  intros S Hb. pose proof S as [w [n [l [s [Ews [Ewn [Et [Hd [Es En]]]]]]]]].
  unfold step_core. rewrite Es, En. unfold is_async. cbn [unl f_cfg nolink c_async].
  destruct (c_async (f_cfg s)) eqn:Ha; [|apply sync_step_lsim; assumption].
  assert (AS : forall m code,
            LSim l0 (fst (async_send xs s m code)) (fst (async_send xn (unl s) m code))
            /\ obs_unlink (snd (async_send xs s m code)) = obs_unlink (snd (async_send xn (unl s) m code))
            /\ (link_ok xs xn -> obs_ok (snd (async_send xn (unl s) m code)) ->
                werrs (s_w (fst (async_send xn (unl s) m code))) = werrs (s_w xn) ->
                link_ok (fst (async_send xs s m code)) (fst (async_send xn (unl s) m code)))).
  { intros m code. destruct (async_send_lsim l0 xs xn s m code S Es) as [S1 [O1 K1]].
    split; [exact S1|]. split; [rewrite O1; reflexivity|]. intros LK _ _. destruct (LK s Es) as [_ [Ha' _]]. congruence. }
  assert (SY : forall o', basic_op o' ->
            LSim l0 (fst (sync_step xs o')) (fst (sync_step xn o'))
            /\ obs_unlink (snd (sync_step xs o')) = obs_unlink (snd (sync_step xn o'))
            /\ (link_ok xs xn -> obs_ok (snd (sync_step xn o')) -> werrs (s_w (fst (sync_step xn o'))) = werrs (s_w xn) ->
                link_ok (fst (sync_step xs o')) (fst (sync_step xn o')))) by (intros o' Ho'; apply sync_step_lsim; assumption).
  destruct o; try contradiction; cbn [async_step]; fold (unl s); first [apply AS | apply SY; exact I].
Qed.

Lemma step_lsim l0 xs xn o : LSim l0 xs xn -> basic_op o ->
  LSim l0 (fst (step xs o)) (fst (step xn o))
  /\ obs_unlink (snd (step xs o)) = obs_unlink (snd (step xn o))
  /\ (link_ok xs xn -> obs_ok (snd (step xn o)) -> werrs (s_w (fst (step xn o))) = werrs (s_w xn) ->
      link_ok (fst (step xs o)) (fst (step xn o))).
Proof.
  intros S Hb. destruct (apply_start_lsim l0 xs xn o S) as [S1 L1]. unfold step.
  destruct (step_core_lsim l0 _ _ o S1 Hb) as [S2 [O2 L2]]. split; [exact S2|]. split; [exact O2|].
  intros LK Hok He. apply L2; [apply L1; exact LK | exact Hok|].
  rewrite He. unfold apply_start. destruct (s_flw xn) as [s|]; [|reflexivity].
  destruct (names_computed o && negb (f_poisoned s)); reflexivity.
Qed.

(* a run that returns normal results and reports nothing *)
Fixpoint clean_run (x : sys) (ops : list op) : Prop :=
  match ops with
  | [] => True
  | o :: r => obs_ok (snd (step x o)) /\ werrs (s_w (fst (step x o))) = werrs (s_w x) /\ clean_run (fst (step x o)) r
  end.

Lemma run_lsim l0 : forall ops xs xn, LSim l0 xs xn -> Forall basic_op ops ->
  LSim l0 (fst (run xs ops)) (fst (run xn ops))
  /\ List.map obs_unlink (snd (run xs ops)) = List.map obs_unlink (snd (run xn ops))
  /\ (link_ok xs xn -> clean_run xn ops -> link_ok (fst (run xs ops)) (fst (run xn ops))).
Proof.
  induction ops as [|o r IH]; intros xs xn S Hb; [split; [exact S|]; split; [reflexivity | intros LK _; exact LK]|].
  inversion Hb as [|o' r' Ho Hr]; subst. cbn [run clean_run].
  pose proof (step_lsim l0 xs xn o S Ho) as St.
  destruct (step xs o) as [xs1 obs1]. destruct (step xn o) as [xn1 obn1]. cbn [fst snd] in St. destruct St as [S1 [O1 L1]].
  specialize (IH xs1 xn1 S1 Hr). destruct (run xs1 r) as [xs2 ls]. destruct (run xn1 r) as [xn2 ln]. cbn [fst snd] in *.
  destruct IH as [S2 [O2 L2]]. split; [exact S2|]. split; [cbn [List.map]; rewrite O1, O2; reflexivity|].
  intros LK [Hok [He Hc]]. apply L2; [apply L1; assumption | exact Hc].
Qed.

(* ------------------------------------------------------------------ dropping the writer *)
Definition WRel (l0 : option bytes) (ws wn : world) : Prop := exists w n l, ws = X l [] n w /\ wn = X l0 [] n w.

Lemma wrel_erase l0 ws wn : WRel l0 ws wn ->
  wn = set_link ws l0 /\ ws = set_link wn (wlink ws) /\ wlink wn = l0 /\ wkill ws = None /\ wkill wn = None.
Proof. intros [w [n [l [-> ->]]]]. repeat split. Qed.

Lemma lsim_wrel l0 xs xn : LSim l0 xs xn -> WRel l0 (s_w xs) (s_w xn).
Proof. intros [w [n [l [s [-> [-> _]]]]]]. exists w, n, l. split; reflexivity. Qed.

Lemma sync_stop_lsim l0 xs xn : LSim l0 xs xn ->
  WRel l0 (s_w (fst (sync_step xs OStop))) (s_w (fst (sync_step xn OStop)))
  /\ wlink (s_w (fst (sync_step xs OStop))) = wlink (s_w xs)
  /\ snd (sync_step xs OStop) = snd (sync_step xn OStop)
  /\ s_flw (fst (sync_step xs OStop)) = None /\ s_flw (fst (sync_step xn OStop)) = None.
Proof.
  intros [w [n [l [s [Ews [Ewn [Et [Hd [Es En]]]]]]]]]. sys_destruct xs xn.
  cbn [sync_step s_flw s_w unl f_poisoned f_inner]. destruct (f_poisoned s).
  - unfold drain_acts. destruct (f_inner s) as [|o wr p].
    + cbn [fst snd s_w s_flw]. split; [exists w, n, l; split; reflexivity|]. repeat split.
    + destruct (w_drop_U wr w) as [w' E]. rewrite !E. cbn [fst snd s_w s_flw].
      split; [exists w', n, l; split; reflexivity|]. repeat split.
  - fold (unl s). rewrite drop_state_unl. destruct (drop_state_U s w) as [w' E]. rewrite !E. cbn [fst snd s_w s_flw].
    split; [exists w', n, l; split; reflexivity|]. repeat split.
Qed.

Lemma stop_lsim l0 xs xn : LSim l0 xs xn ->
  WRel l0 (s_w (fst (step xs OStop))) (s_w (fst (step xn OStop)))
  /\ wlink (s_w (fst (step xs OStop))) = wlink (s_w xs)
  /\ snd (step xs OStop) = snd (step xn OStop)
  /\ s_flw (fst (step xs OStop)) = None /\ s_flw (fst (step xn OStop)) = None.
Proof.
  intros S0. destruct (apply_start_lsim l0 xs xn OStop S0) as [S _].
  assert (W0 : s_w (apply_start xs OStop) = s_w xs).
  { unfold apply_start. destruct (s_flw xs) as [s|]; reflexivity. }
  unfold step. rewrite <- W0. revert S. generalize (apply_start xs OStop) (apply_start xn OStop). clear. intros xs xn S.
  pose proof S as [w [n [l [s [Ews [Ewn [Et [Hd [Es En]]]]]]]]].
  unfold step_core. rewrite Es, En. unfold is_async. cbn [unl f_cfg nolink c_async f_poisoned].
  destruct (c_async (f_cfg s)); [|apply sync_stop_lsim; exact S].
  rewrite <- Hd. destruct (s_dead xs || f_poisoned s)%bool eqn:Hb.
  - assert (S1 : LSim l0 {| s_flw := s_flw xs; s_w := s_w xs; s_tl := s_tl xs; s_dead := true |}
                        {| s_flw := s_flw xn; s_w := s_w xn; s_tl := s_tl xn; s_dead := true |}).
    { exists w, n, l, s. cbn [s_flw s_w s_tl s_dead]. repeat split; assumption. }
    exact (sync_stop_lsim l0 _ _ S1).
  - unfold async_consume. rewrite Ews, Ewn. destruct (shutdown_pair s n w l l0) as [w' [s' [A B]]]. fold (unl s). rewrite A, B.
    cbn [s_flw s_w s_tl s_dead].
    assert (S1 : LSim l0 {| s_flw := Some s'; s_w := X l [] n w'; s_tl := s_tl xs; s_dead := true |}
                        {| s_flw := Some (unl s'); s_w := X l0 [] n w'; s_tl := s_tl xn; s_dead := true |}).
    { exists w', n, l, s'. cbn [s_flw s_w s_tl s_dead]. repeat split; assumption. }
    exact (sync_stop_lsim l0 _ _ S1).
Qed.

(* ------------------------------------------------------------------ whole runs, ANY configuration *)
Lemma start_lsim c t0 off :
  LSim None (fst (step (sys0 t0 off) (OStart c))) (fst (step (sys0 t0 off) (OStart (nolink c))))
  /\ (c_symlink c = true -> c_async c = false ->
      link_ok (fst (step (sys0 t0 off) (OStart c))) (fst (step (sys0 t0 off) (OStart (nolink c))))).
Proof.
  cbn. split.
  - exists (world0 t0 off), 0, None, (new_flw c). repeat split.
  - intros Hs Ha s H. cbn in H. injection H as <-. cbn. repeat split; assumption.
Qed.

(* (a)  The run under c and the run under nolink c: the world of the second is the world of the first with the link
   erased - same file system, clock, fault oracle, error channel; the observations agree except for the link shown by
   snapshots.  With and without the final drop of the writer; the drop leaves the link as it is. *)
Theorem link_sim_whole c t0 off ops : Forall basic_op ops ->
  let rs := run (sys0 t0 off) (OStart c :: ops) in
  let rn := run (sys0 t0 off) (OStart (nolink c) :: ops) in
  let rs' := run (sys0 t0 off) (OStart c :: ops ++ [OStop]) in
  let rn' := run (sys0 t0 off) (OStart (nolink c) :: ops ++ [OStop]) in
  (s_w (fst rn) = set_link (s_w (fst rs)) None /\ List.map obs_unlink (snd rs) = List.map obs_unlink (snd rn))
  /\ (s_w (fst rn') = set_link (s_w (fst rs')) None /\ List.map obs_unlink (snd rs') = List.map obs_unlink (snd rn')
      /\ wlink (s_w (fst rs')) = wlink (s_w (fst rs))).
Proof.
  intros Hb. cbn zeta. cbn [run]. destruct (start_lsim c t0 off) as [S0 _].
  assert (O0 : snd (step (sys0 t0 off) (OStart c)) = ObsRes 0%N false) by reflexivity.
  assert (O0' : snd (step (sys0 t0 off) (OStart (nolink c))) = ObsRes 0%N false) by reflexivity.
  destruct (step (sys0 t0 off) (OStart c)) as [xs0 os0]. destruct (step (sys0 t0 off) (OStart (nolink c))) as [xn0 on0].
  cbn [fst snd] in S0, O0, O0'. subst os0 on0. rewrite !run_app.
  destruct (run_lsim None ops xs0 xn0 S0 Hb) as [S1 [E1 _]].
  destruct (run xs0 ops) as [xs1 ls]. destruct (run xn0 ops) as [xn1 ln]. cbn [fst snd] in *.
  split.
  - split; [exact (proj1 (wrel_erase _ _ _ (lsim_wrel _ _ _ S1)))|]. cbn [List.map obs_unlink]. rewrite E1. reflexivity.
  - destruct (stop_lsim None xs1 xn1 S1) as [W2 [L2 [O2 _]]]. cbn [run].
    destruct (step xs1 OStop) as [xs2 os2]. destruct (step xn1 OStop) as [xn2 on2]. cbn [fst snd] in *. subst os2.
    split; [exact (proj1 (wrel_erase _ _ _ W2))|]. split; [|exact L2].
    cbn [List.map obs_unlink]. rewrite !map_app, E1. reflexivity.
Qed.

(* (b)  The link always resolves to the file that is written to.  HYPOTHESES: synchronous handle; the run under
   nolink c (equivalently, by (a), the run under c) returns normal results and reports nothing on the error channel.
   CONCLUSION, after every history of basic operations (hence at every point of the run): once the writer is
   initialised - state Active _ _ path, i.e. after the first write - the link is Some path, the path of the file the
   writer holds open; before, the link is as it was at the start (None). *)
Lemma symlink_run_state c t0 off ops :
  c_symlink c = true -> c_async c = false -> Forall basic_op ops ->
  clean_run (fst (step (sys0 t0 off) (OStart (nolink c)))) ops ->
  let xs := fst (run (sys0 t0 off) (OStart c :: ops)) in
  let xn := fst (run (sys0 t0 off) (OStart (nolink c) :: ops)) in
  exists s, s_flw xs = Some s /\ s_flw xn = Some (unl s) /\ link_st None (wlink (s_w xs)) (f_inner s).
Proof.
  intros Hs Ha Hb Hc. cbn zeta. cbn [run]. destruct (start_lsim c t0 off) as [S0 L0]. specialize (L0 Hs Ha).
  destruct (step (sys0 t0 off) (OStart c)) as [xs0 os0]. destruct (step (sys0 t0 off) (OStart (nolink c))) as [xn0 on0].
  cbn [fst snd] in *. destruct (run_lsim None ops xs0 xn0 S0 Hb) as [S1 [_ L1]]. specialize (L1 L0 Hc).
  destruct (run xs0 ops) as [xs1 ls]. destruct (run xn0 ops) as [xn1 ln]. cbn [fst snd] in *.
  pose proof S1 as [w [n [l [s [Ews [Ewn [_ [_ [Es En]]]]]]]]]. exists s. split; [exact Es|]. split; [exact En|].
  destruct (L1 s Es) as [_ [_ L]]. rewrite Ewn in L. exact L.
Qed.

Theorem symlink_points_to_current c t0 off ops :
  c_symlink c = true -> c_async c = false -> Forall basic_op ops ->
  clean_run (fst (step (sys0 t0 off) (OStart (nolink c)))) ops ->
  let x := fst (run (sys0 t0 off) (OStart c :: ops)) in
  exists s, s_flw x = Some s /\
    match f_inner s with
    | Active _ _ path => wlink (s_w x) = Some path
    | Initial => wlink (s_w x) = None
    end.
Proof.
  intros Hs Ha Hb Hc. destruct (symlink_run_state c t0 off ops Hs Ha Hb Hc) as [s [Es [_ L]]]. exists s. split; [exact Es|].
  unfold link_st in L. destruct (f_inner s); exact L.
Qed.

Print Assumptions link_sim_whole.
Print Assumptions symlink_points_to_current.

(* ------------------------------------------------------------------ transfer to configurations with a symlink *)
Lemma symlink_final_fs c t0 off ops : Forall basic_op ops ->
  wfs (s_w (fst (run (sys0 t0 off) (OStart c :: ops ++ [OStop]))))
  = wfs (s_w (fst (run (sys0 t0 off) (OStart (nolink c) :: ops ++ [OStop])))).
Proof. intros Hb. destruct (link_sim_whole c t0 off ops Hb) as [_ [E _]]. cbn zeta in E. rewrite E. reflexivity. Qed.

Lemma obs_ok_unlink ob : obs_ok (obs_unlink ob) <-> obs_ok ob.
Proof. destruct ob; cbn; tauto. Qed.
Lemma Forall_obs_unlink l1 : forall l2, List.map obs_unlink l1 = List.map obs_unlink l2 -> Forall obs_ok l2 -> Forall obs_ok l1.
Proof.
  induction l1 as [|a r IH]; intros [|b r2] E H; try discriminate; [constructor|].
  cbn [List.map] in E. injection E as E1 E2. inversion H as [|b' r' H1 H2]; subst. constructor; [|exact (IH r2 E2 H2)].
  apply obs_ok_unlink. rewrite E1. apply obs_ok_unlink. exact H1.
Qed.
Lemma symlink_obs_ok c t0 off ops : Forall basic_op ops ->
  Forall obs_ok (snd (run (sys0 t0 off) (OStart (nolink c) :: ops ++ [OStop]))) ->
  Forall obs_ok (snd (run (sys0 t0 off) (OStart c :: ops ++ [OStop]))).
Proof. intros Hb. destruct (link_sim_whole c t0 off ops Hb) as [_ [_ [E _]]]. cbn zeta in E. exact (Forall_obs_unlink _ _ E). Qed.

Lemma same_env_errs w w' : same_env w w' -> werrs w' = werrs w.
Proof. intros (_ & _ & _ & H & _). exact H. Qed.

(* ---- Numbers naming: the configuration is of the family numcfg but for the symlink ---- *)
Lemma num_step_clean c crit x a o : numcfg c crit -> Rel c crit x a -> basic_op o ->
  obs_ok (snd (step x o)) /\ werrs (s_w (fst (step x o))) = werrs (s_w x).
Proof.
  intros Hcfg R Hb. split; [exact (step_rel_ok c crit x a o Hcfg R Hb)|].
  rewrite (step_sync_rel c crit x a o Hcfg R). destruct R as [Ht [Ha R]].
  assert (WB : forall b, exists s w' s' rot, s_flw x = Some s /\ f_poisoned s = false
                 /\ write_buffer s (s_w x) b = (Ok tt, w', s', rot) /\ werrs w' = werrs (s_w x)).
  { intros b. destruct a as [[closed cur]|].
    - destruct R as [wr [roll [Es [I [V [Z RS]]]]]]. rewrite <- V in Z.
      destruct (write_active c crit (s_w x) wr closed roll b Hcfg I Z) as [w' [wr' [roll' [closed' [E [_ [_ [S' _]]]]]]]].
      eexists _, w', _, _. split; [exact Es|]. split; [reflexivity|]. split; [exact E | exact (same_env_errs _ _ S')].
    - destruct R as [Es [Q [Hn Hi]]].
      destruct (initialize_empty c crit (s_w x) Hcfg Q Hn Hi) as [w1 [wr [roll [Ei [I [V [Z [S1 RS]]]]]]]].
      assert (Z0 : roll_size_ok roll (length (cur_view w1 wr))) by (rewrite V; exact Z).
      destruct (write_active c crit w1 wr [] roll b Hcfg I Z0) as [w' [wr' [roll' [closed' [E [_ [_ [S' _]]]]]]]].
      eexists _, w', _, _. split; [exact Es|]. split; [reflexivity|].
      split; [rewrite (write_buffer_init c (s_w x) b _ _ _ w1 Ei); exact E|].
      rewrite (same_env_errs _ _ S'). exact (same_env_errs _ _ S1). }
  destruct o; try contradiction; cbn [sync_step].
  - destruct (WB (s_tl x ++ b)) as [s [w' [s' [rot [Es [Hp [E He]]]]]]]. rewrite Es, Hp, E. exact He.
  - destruct (WB b) as [s [w' [s' [rot [Es [Hp [E He]]]]]]]. rewrite Es, Hp, E. exact He.
  - destruct a as [[closed cur]|].
    + destruct R as [wr [roll [Es [I _]]]]. rewrite Es. cbn [st_of f_poisoned].
      destruct (flush_active c (s_w x) wr closed roll I) as [w' [wr' [E [_ [_ [_ S']]]]]].
      fold (st_of c (length closed) roll wr). rewrite E. exact (same_env_errs _ _ S').
    + destruct R as [Es _]. rewrite Es. reflexivity.
  - destruct a as [[closed cur]|].
    + destruct R as [wr [roll [Es [I _]]]]. rewrite Es. cbn [st_of f_poisoned f_cfg f_inner].
      destruct (mount_next_rotates c crit (s_w x) wr closed roll true Hcfg I eq_refl) as [w' [wr' [roll' [E [_ [_ [_ [S' _]]]]]]]].
      rewrite E. exact (same_env_errs _ _ S').
    + destruct R as [Es _]. rewrite Es. reflexivity.
  - reflexivity.
  - reflexivity.
Qed.

Lemma num_run_clean c crit : numcfg c crit -> forall ops x a, Rel c crit x a -> Forall basic_op ops -> clean_run x ops.
Proof.
  intros Hcfg. induction ops as [|o r IH]; intros x a R Hb; [exact I|].
  inversion Hb as [|o' r' Ho Hr]; subst. cbn [clean_run].
  destruct (num_step_clean c crit x a o Hcfg R Ho) as [K E]. pose proof (step_rel c crit x a o Hcfg R Ho) as S.
  destruct (step x o) as [x1 ob]. destruct S as [R1 _]. cbn [fst snd] in *. split; [exact K|]. split; [exact E|].
  exact (IH x1 _ R1 Hr).
Qed.

Lemma inner_of_eq (s1 s2 : flw) : Some s1 = Some s2 -> f_inner s1 = f_inner s2.
Proof. intros E. injection E as <-. reflexivity. Qed.

(* the link points to rCURRENT as soon as something has been written *)
Theorem numbers_symlink_current c crit t0 off ops :
  numcfg (nolink c) crit -> c_symlink c = true -> Forall basic_op ops ->
  wlink (s_w (fst (run (sys0 t0 off) (OStart c :: ops)))) = if has_write ops then Some (cname c) else None.
Proof.
  intros Hcfg Hs Hb. pose proof Hcfg as (_ & _ & _ & Ha). change (c_async (nolink c)) with (c_async c) in Ha.
  pose proof (start_rel (nolink c) crit t0 off) as R0.
  pose proof (num_run_clean _ crit Hcfg ops _ None R0 Hb) as Hc.
  destruct (symlink_run_state c t0 off ops Hs Ha Hb Hc) as [s [Es [En L]]]. cbn zeta in *.
  cbn [run] in En. pose proof (run_rel _ crit Hcfg ops _ None R0 Hb) as R1.
  pose proof (a_run_none_iff ops _ (run_length ops (fst (step (sys0 t0 off) (OStart (nolink c))))) Hb) as AN.
  destruct (step (sys0 t0 off) (OStart (nolink c))) as [xn0 on0]. cbn [fst snd] in *.
  destruct (run xn0 ops) as [xn1 ln]. cbn [fst snd] in *. destruct R1 as [_ [_ R1]].
  destruct (a_run None ops ln) as [[closed cur]|].
  - destruct R1 as [wr [roll [Es1 _]]]. rewrite Es1 in En. apply inner_of_eq in En. cbn [unl st_of f_inner] in En.
    destruct (has_write ops); [|destruct AN as [_ AN]; discriminate (AN eq_refl)].
    rewrite <- En in L. exact L.
  - destruct R1 as [Es1 _]. rewrite Es1 in En. apply inner_of_eq in En. cbn [unl new_flw f_inner] in En.
    destruct (has_write ops); [destruct AN as [AN _]; discriminate (AN eq_refl)|]. rewrite <- En in L. exact L.
Qed.

Theorem numbers_stream_symlink c crit t0 off ops :
  numcfg (nolink c) crit -> Forall basic_op ops ->
  exists files, reads c (wfs (s_w (fst (run (sys0 t0 off) (OStart c :: ops ++ [OStop]))))) files
    /\ concat files = written ops.
Proof.
  intros Hcfg Hb. rewrite (symlink_final_fs c t0 off ops Hb). change (reads c) with (reads (nolink c)).
  exact (numbers_stream (nolink c) crit t0 off ops Hcfg Hb).
Qed.

Theorem numbers_partition_symlink c m t0 off ops :
  numcfg (nolink c) (CSize m) -> Forall basic_op ops ->
  reads c (wfs (s_w (fst (run (sys0 t0 off) (OStart c :: ops ++ [OStop]))))) (expected_files m None (items false ops)).
Proof.
  intros Hcfg Hb. rewrite (symlink_final_fs c t0 off ops Hb). change (reads c) with (reads (nolink c)).
  exact (numbers_partition (nolink c) m t0 off ops Hcfg Hb).
Qed.

Theorem numbers_no_panic_symlink c crit t0 off ops :
  numcfg (nolink c) crit -> Forall basic_op ops ->
  Forall obs_ok (snd (run (sys0 t0 off) (OStart c :: ops ++ [OStop]))).
Proof. intros Hcfg Hb. apply symlink_obs_ok; [exact Hb|]. exact (numbers_no_panic (nolink c) crit t0 off ops Hcfg Hb). Qed.

Print Assumptions numbers_symlink_current.
Print Assumptions numbers_stream_symlink.
Print Assumptions numbers_no_panic_symlink.

(* ---- NumbersDirect naming ---- *)
Lemma numd_step_clean c crit x a o : numdcfg c crit -> RelD c crit x a -> basic_op o ->
  obs_ok (snd (step x o)) /\ werrs (s_w (fst (step x o))) = werrs (s_w x).
Proof.
  intros Hcfg R Hb. split; [exact (step_rel_d_ok c crit x a o Hcfg R Hb)|].
  rewrite (step_sync_rel_d c crit x a o Hcfg R). destruct R as [Ht [Ha R]].
  assert (WB : forall b, exists s w' s' rot, s_flw x = Some s /\ f_poisoned s = false
                 /\ write_buffer s (s_w x) b = (Ok tt, w', s', rot) /\ werrs w' = werrs (s_w x)).
  { intros b. destruct a as [[closed cur]|].
    - destruct R as [wr [roll [Es [I [V [Z RS]]]]]]. rewrite <- V in Z.
      destruct (write_active_d c crit (s_w x) wr closed roll b Hcfg I Z) as [w' [wr' [roll' [closed' [E [_ [_ [S' _]]]]]]]].
      eexists _, w', _, _. split; [exact Es|]. split; [reflexivity|]. split; [exact E | exact (same_env_errs _ _ S')].
    - destruct R as [Es [Q [Hn Hi]]].
      destruct (initialize_empty_d c crit (s_w x) Hcfg Q Hn Hi) as [w1 [wr [roll [Ei [I [V [Z [S1 RS]]]]]]]].
      assert (Z0 : roll_size_ok roll (length (cur_view w1 wr))) by (rewrite V; exact Z).
      destruct (write_active_d c crit w1 wr [] roll b Hcfg I Z0) as [w' [wr' [roll' [closed' [E [_ [_ [S' _]]]]]]]].
      eexists _, w', _, _. split; [exact Es|]. split; [reflexivity|].
      split; [rewrite (write_buffer_init c (s_w x) b _ _ _ w1 Ei); exact E|].
      rewrite (same_env_errs _ _ S'). exact (same_env_errs _ _ S1). }
  destruct o; try contradiction; cbn [sync_step].
  - destruct (WB (s_tl x ++ b)) as [s [w' [s' [rot [Es [Hp [E He]]]]]]]. rewrite Es, Hp, E. exact He.
  - destruct (WB b) as [s [w' [s' [rot [Es [Hp [E He]]]]]]]. rewrite Es, Hp, E. exact He.
  - destruct a as [[closed cur]|].
    + destruct R as [wr [roll [Es [I _]]]]. rewrite Es. cbn [st_of_d f_poisoned].
      destruct (flush_active_d c (s_w x) wr closed roll I) as [w' [wr' [E [_ [_ [_ S']]]]]].
      fold (st_of_d c (length closed) roll wr). rewrite E. exact (same_env_errs _ _ S').
    + destruct R as [Es _]. rewrite Es. reflexivity.
  - destruct a as [[closed cur]|].
    + destruct R as [wr [roll [Es [I _]]]]. rewrite Es. cbn [st_of_d f_poisoned f_cfg f_inner].
      destruct (mount_next_rotates_d c crit (s_w x) wr closed roll true Hcfg I eq_refl) as [w' [wr' [roll' [E [_ [_ [_ [S' _]]]]]]]].
      rewrite E. exact (same_env_errs _ _ S').
    + destruct R as [Es _]. rewrite Es. reflexivity.
  - reflexivity.
  - reflexivity.
Qed.

Lemma numd_run_clean c crit : numdcfg c crit -> forall ops x a, RelD c crit x a -> Forall basic_op ops -> clean_run x ops.
Proof.
  intros Hcfg. induction ops as [|o r IH]; intros x a R Hb; [exact I|].
  inversion Hb as [|o' r' Ho Hr]; subst. cbn [clean_run].
  destruct (numd_step_clean c crit x a o Hcfg R Ho) as [K E]. pose proof (step_rel_d c crit x a o Hcfg R Ho) as S.
  destruct (step x o) as [x1 ob]. destruct S as [R1 _]. cbn [fst snd] in *. split; [exact K|]. split; [exact E|].
  exact (IH x1 _ R1 Hr).
Qed.

(* at every point of the run the link names the file with the highest number: with the reader's view
   (closed files, current file) of the run, r(length closed) *)
Theorem numbersdirect_symlink_current c crit t0 off ops :
  numdcfg (nolink c) crit -> c_symlink c = true -> Forall basic_op ops ->
  wlink (s_w (fst (run (sys0 t0 off) (OStart c :: ops))))
  = match a_run None ops (snd (run (fst (step (sys0 t0 off) (OStart (nolink c)))) ops)) with
    | Some (closed, _) => Some (rname c (length closed))
    | None => None
    end.
Proof.
  intros Hcfg Hs Hb. pose proof Hcfg as (_ & _ & _ & Ha). change (c_async (nolink c)) with (c_async c) in Ha.
  pose proof (start_rel_d (nolink c) crit t0 off) as R0.
  pose proof (numd_run_clean _ crit Hcfg ops _ None R0 Hb) as Hc.
  destruct (symlink_run_state c t0 off ops Hs Ha Hb Hc) as [s [Es [En L]]]. cbn zeta in *.
  cbn [run] in En. pose proof (run_rel_d _ crit Hcfg ops _ None R0 Hb) as R1.
  destruct (step (sys0 t0 off) (OStart (nolink c))) as [xn0 on0]. cbn [fst snd] in *.
  destruct (run xn0 ops) as [xn1 ln]. cbn [fst snd] in *. destruct R1 as [_ [_ R1]].
  destruct (a_run None ops ln) as [[closed cur]|].
  - destruct R1 as [wr [roll [Es1 _]]]. rewrite Es1 in En. apply inner_of_eq in En. cbn [unl st_of_d f_inner] in En.
    rewrite <- En in L. exact L.
  - destruct R1 as [Es1 _]. rewrite Es1 in En. apply inner_of_eq in En. cbn [unl new_flw f_inner] in En. rewrite <- En in L. exact L.
Qed.

(* C01 with symlink: after the writer is stopped the directory is r00000 .. r(n), their contents are what was written,
   and the link names the last of them (no link if nothing was written) *)
Theorem numbersdirect_stream_symlink c crit t0 off ops :
  numdcfg (nolink c) crit -> c_symlink c = true -> Forall basic_op ops ->
  let w := s_w (fst (run (sys0 t0 off) (OStart c :: ops ++ [OStop]))) in
  exists files, direct_view c (wfs w) files /\ concat files = written ops
    /\ wlink w = match files with [] => None | _ => Some (rname c (length files - 1)) end.
Proof.
  intros Hcfg Hs Hb. cbn zeta. destruct (link_sim_whole c t0 off ops Hb) as [_ [_ [_ EL]]]. cbn zeta in EL. rewrite EL.
  rewrite (numbersdirect_symlink_current c crit t0 off ops Hcfg Hs Hb), (symlink_final_fs c t0 off ops Hb).
  destruct (run_view_d (nolink c) crit t0 off ops Hcfg Hb) as [x0 [ob0 [E0 [R0 V]]]]. rewrite E0. cbn [fst].
  exists (files_of (a_run None ops (snd (run x0 ops)))). split; [exact V|].
  pose proof (a_run_flat ops None (snd (run x0 ops)) Hb (run_length ops x0)) as F. cbn [flat app] in F. rewrite <- F.
  destruct (a_run None ops (snd (run x0 ops))) as [[cl cu]|]; cbn [files_of flat concat]; [|split; reflexivity].
  split; [rewrite concat_app; cbn [concat]; rewrite app_nil_r; reflexivity|].
  destruct (cl ++ [cu]) eqn:E; [destruct cl; discriminate|]. rewrite <- E, app_length. cbn [length].
  replace (length cl + 1 - 1) with (length cl) by lia. reflexivity.
Qed.

Theorem numbersdirect_partition_symlink c m t0 off ops :
  numdcfg (nolink c) (CSize m) -> Forall basic_op ops ->
  direct_view c (wfs (s_w (fst (run (sys0 t0 off) (OStart c :: ops ++ [OStop]))))) (expected_files m None (items false ops)).
Proof.
  intros Hcfg Hb. rewrite (symlink_final_fs c t0 off ops Hb). change (direct_view c) with (direct_view (nolink c)).
  exact (numbersdirect_partition (nolink c) m t0 off ops Hcfg Hb).
Qed.

Theorem numbersdirect_no_panic_symlink c crit t0 off ops :
  numdcfg (nolink c) crit -> Forall basic_op ops ->
  Forall obs_ok (snd (run (sys0 t0 off) (OStart c :: ops ++ [OStop]))).
Proof. intros Hcfg Hb. apply symlink_obs_ok; [exact Hb|]. exact (numbersdirect_no_panic (nolink c) crit t0 off ops Hcfg Hb). Qed.

Print Assumptions numbersdirect_symlink_current.
Print Assumptions numbersdirect_stream_symlink.
Print Assumptions numbersdirect_no_panic_symlink.

(* ---- Timestamps naming ---- *)
Lemma ts_step_clean c crit e lo hi n x a o :
  tscfg c crit -> tag_ok c -> years_ok e lo hi -> RelT c e lo n x a -> basic_op o -> tick_ok o ->
  (wnow (s_w x) <= hi)%Z -> (N.of_nat n <= usize_max)%N ->
  obs_ok (snd (step x o)) /\ werrs (s_w (fst (step x o))) = werrs (s_w x).
Proof.
  intros Hcfg T Y R Hb Htk Hhi Hmax. split; [exact (step_rel_ts_ok c crit e lo hi n x a o Hcfg T Y R Hb Htk Hhi Hmax)|].
  rewrite (step_sync_rel_ts c crit e lo n x a o Hcfg R). destruct R as [Ht [Ha R]].
  assert (WB : forall b, exists s w' s' rot, s_flw x = Some s /\ f_poisoned s = false
                 /\ write_buffer s (s_w x) b = (Ok tt, w', s', rot) /\ werrs w' = werrs (s_w x)).
  { intros b. destruct a as [[closed cur]|].
    - destruct R as [keys [wr [roll [ts [Es [I [V Hn]]]]]]].
      destruct (write_active_ts c crit e lo hi (s_w x) wr keys closed ts roll b Hcfg T Y I Hhi ltac:(lia))
        as [w' [wr' [roll' [keys' [closed' [ts' [E [_ [S' _]]]]]]]]].
      eexists _, w', _, _. split; [exact Es|]. split; [reflexivity|]. split; [exact E | exact (same_env_errs _ _ S')].
    - destruct R as [Es [Q [Hn [Hi [Hoff Hlo]]]]].
      destruct (initialize_empty_ts c crit e lo (s_w x) Hcfg Q Hn Hi Hoff Hlo) as [w1 [wr [roll [Ei [I [V S1]]]]]].
      assert (Hhi1 : (wnow w1 <= hi)%Z) by (rewrite (same_env_now _ _ S1); exact Hhi).
      destruct (write_active_ts c crit e lo hi w1 wr [] [] (wnow (s_w x)) roll b Hcfg T Y I Hhi1 ltac:(cbn; lia))
        as [w' [wr' [roll' [keys' [closed' [ts' [E [_ [S' _]]]]]]]]].
      eexists _, w', _, _. split; [exact Es|]. split; [reflexivity|].
      split; [rewrite (write_buffer_init c (s_w x) b _ _ _ w1 Ei); exact E|].
      rewrite (same_env_errs _ _ S'). exact (same_env_errs _ _ S1). }
  destruct o; try contradiction; cbn [sync_step].
  - destruct (WB (s_tl x ++ b)) as [s [w' [s' [rot [Es [Hp [E He]]]]]]]. rewrite Es, Hp, E. exact He.
  - destruct (WB b) as [s [w' [s' [rot [Es [Hp [E He]]]]]]]. rewrite Es, Hp, E. exact He.
  - destruct a as [[closed cur]|].
    + destruct R as [keys [wr [roll [ts [Es [I _]]]]]]. rewrite Es. cbn [st_ts f_poisoned].
      destruct (flush_active_ts c e lo (s_w x) wr keys closed ts roll I) as [w' [wr' [E [_ [_ [_ S']]]]]].
      fold (st_ts c ts roll wr). rewrite E. exact (same_env_errs _ _ S').
    + destruct R as [Es _]. rewrite Es. reflexivity.
  - destruct a as [[closed cur]|].
    + destruct R as [keys [wr [roll [ts [Es [I [V Hn]]]]]]]. rewrite Es. cbn [st_ts f_poisoned f_cfg f_inner].
      destruct (mount_next_rotates_ts c crit e lo hi (s_w x) wr keys closed ts roll true Hcfg T Y I Hhi ltac:(lia) eq_refl)
        as [w' [wr' [roll' [E [_ [_ S']]]]]].
      rewrite E. exact (same_env_errs _ _ S').
    + destruct R as [Es _]. rewrite Es. reflexivity.
  - reflexivity.
  - reflexivity.
Qed.

Lemma ts_run_clean c crit e lo hi : tscfg c crit -> tag_ok c -> years_ok e lo hi ->
  forall ops x a n, RelT c e lo n x a -> Forall basic_op ops -> Forall tick_ok ops ->
  (wnow (s_w x) + elapsed ops <= hi)%Z -> (N.of_nat (n + length ops) <= usize_max)%N -> clean_run x ops.
Proof.
  intros Hcfg T Y. induction ops as [|o r IH]; intros x a n R Hb Htk Hhi Hmax; [exact I|].
  inversion Hb as [|o' r' Ho Hr]; subst. inversion Htk as [|o' r' Hto Htr]; subst.
  cbn [elapsed length clean_run] in *. pose proof (elapsed_nonneg r Htr) as Er.
  assert (Hdt : (0 <= dt_of o)%Z) by (destruct o; cbn [dt_of tick_ok] in *; lia).
  destruct (ts_step_clean c crit e lo hi n x a o Hcfg T Y R Ho Hto ltac:(lia) ltac:(lia)) as [K E].
  pose proof (step_rel_ts c crit e lo hi n x a o Hcfg T Y R Ho Hto ltac:(lia) ltac:(lia)) as S.
  destruct (step x o) as [x1 ob]. destruct S as [R1 W1]. cbn [fst snd] in *. split; [exact K|]. split; [exact E|].
  apply (IH x1 _ (S n) R1 Hr Htr); lia.
Qed.

(* the link points to rCURRENT as soon as something has been written (hypotheses of timestamps_stream) *)
Theorem timestamps_symlink_current c crit t0 off ops :
  tscfg (nolink c) crit -> tag_ok c -> c_symlink c = true -> Forall basic_op ops -> Forall tick_ok ops ->
  (0 <= t0 + ts_e c off)%Z -> (t0 + elapsed ops + ts_e c off < sec_max)%Z -> (N.of_nat (length ops) <= usize_max)%N ->
  wlink (s_w (fst (run (sys0 t0 off) (OStart c :: ops)))) = if has_write ops then Some (cname c) else None.
Proof.
  intros Hcfg T Hs Hb Htk Hlo Hhi Hmax. pose proof Hcfg as (_ & _ & _ & Ha). change (c_async (nolink c)) with (c_async c) in Ha.
  pose proof (start_rel_ts (nolink c) t0 off) as R0.
  assert (Y : years_ok (ts_e (nolink c) off) t0 (t0 + elapsed ops)) by (split; assumption).
  assert (W0 : wnow (s_w (fst (step (sys0 t0 off) (OStart (nolink c))))) = t0) by reflexivity.
  pose proof (ts_run_clean (nolink c) crit _ _ _ Hcfg T Y ops _ None 0 R0 Hb Htk ltac:(lia) ltac:(cbn [Nat.add]; exact Hmax)) as Hc.
  destruct (symlink_run_state c t0 off ops Hs Ha Hb Hc) as [s [Es [En L]]]. cbn zeta in *.
  cbn [run] in En.
  pose proof (run_rel_ts (nolink c) crit _ _ _ Hcfg T Y ops _ None 0 R0 Hb Htk ltac:(lia) ltac:(cbn [Nat.add]; exact Hmax)) as [R1 _].
  pose proof (a_run_none_iff ops _ (run_length ops (fst (step (sys0 t0 off) (OStart (nolink c))))) Hb) as AN.
  destruct (step (sys0 t0 off) (OStart (nolink c))) as [xn0 on0]. cbn [fst snd] in *.
  destruct (run xn0 ops) as [xn1 ln]. cbn [fst snd] in *. destruct R1 as [_ [_ R1]].
  destruct (a_run None ops ln) as [[closed cur]|].
  - destruct R1 as [keys [wr [roll [ts [Es1 _]]]]]. rewrite Es1 in En. apply inner_of_eq in En. cbn [unl st_ts f_inner] in En.
    destruct (has_write ops); [|destruct AN as [_ AN]; discriminate (AN eq_refl)].
    rewrite <- En in L. exact L.
  - destruct R1 as [Es1 _]. rewrite Es1 in En. apply inner_of_eq in En. cbn [unl new_flw f_inner] in En.
    destruct (has_write ops); [destruct AN as [AN _]; discriminate (AN eq_refl)|]. rewrite <- En in L. exact L.
Qed.

Theorem timestamps_stream_symlink c crit t0 off ops :
  tscfg (nolink c) crit -> tag_ok c -> Forall basic_op ops -> Forall tick_ok ops ->
  (0 <= t0 + ts_e c off)%Z -> (t0 + elapsed ops + ts_e c off < sec_max)%Z -> (N.of_nat (length ops) <= usize_max)%N ->
  let f := wfs (s_w (fst (run (sys0 t0 off) (OStart c :: ops ++ [OStop])))) in
  (names f = [] /\ written ops = [])
  \/ exists keys closed cur,
       ts_view c (ts_e c off) f keys closed cur
       /\ concat closed ++ cur = written ops
       /\ keys_ok keys
       /\ (forall k, In k keys -> (t0 <= fst k <= t0 + elapsed ops)%Z).
Proof.
  intros Hcfg T Hb Htk Hlo Hhi Hmax. cbn zeta. rewrite (symlink_final_fs c t0 off ops Hb).
  exact (timestamps_stream (nolink c) crit t0 off ops Hcfg T Hb Htk Hlo Hhi Hmax).
Qed.

Theorem timestamps_no_panic_symlink c crit t0 off ops :
  tscfg (nolink c) crit -> tag_ok c -> Forall basic_op ops -> Forall tick_ok ops ->
  (0 <= t0 + ts_e c off)%Z -> (t0 + elapsed ops + ts_e c off < sec_max)%Z -> (N.of_nat (length ops) <= usize_max)%N ->
  Forall obs_ok (snd (run (sys0 t0 off) (OStart c :: ops ++ [OStop]))).
Proof.
  intros Hcfg T Hb Htk Hlo Hhi Hmax. apply symlink_obs_ok; [exact Hb|].
  exact (timestamps_no_panic (nolink c) crit t0 off ops Hcfg T Hb Htk Hlo Hhi Hmax).
Qed.

Print Assumptions timestamps_symlink_current.
Print Assumptions timestamps_stream_symlink.
Print Assumptions timestamps_no_panic_symlink.

(* ---- TimestampsDirect naming ---- *)
Lemma tsd_step_clean c crit e lo hi n x a o :
  tsdcfg c crit -> tag_ok c -> years_ok e lo hi -> RelTd c crit e lo n x a -> basic_op o -> tick_ok o ->
  (wnow (s_w x) <= hi)%Z -> (N.of_nat (S n) <= usize_max)%N ->
  obs_ok (snd (step x o)) /\ werrs (s_w (fst (step x o))) = werrs (s_w x).
Proof.
  intros Hcfg T Y R Hb Htk Hhi Hmax.
  rewrite (step_sync_rel_tsd c crit e lo n x a o Hcfg R). destruct R as [Ht [Ha R]].
  assert (WB : forall b, exists s w' s' rot, s_flw x = Some s /\ f_poisoned s = false
                 /\ write_buffer s (s_w x) b = (Ok tt, w', s', rot) /\ werrs w' = werrs (s_w x)).
  { intros b. destruct a as [[closed cur]|].
    - destruct R as [keys [wr [roll [Es [I [V [Hn [Z RS]]]]]]]]. rewrite <- V in Z.
      assert (Hk : (N.of_nat (length keys) <= usize_max)%N) by (rewrite (td_len _ _ _ _ _ _ _ I); lia).
      destruct (write_active_tsd c crit e lo hi (s_w x) wr keys closed roll b Hcfg T Y I Hhi Hk Z)
        as [w' [wr' [roll' [keys' [closed' [E [_ [_ [S' _]]]]]]]]].
      eexists _, w', _, _. split; [exact Es|]. split; [reflexivity|]. split; [exact E | exact (same_env_errs _ _ S')].
    - destruct R as [Es [Q [Hn [Hi [Hoff Hlo]]]]].
      destruct (initialize_empty_tsd c crit e lo (s_w x) Hcfg Q Hn Hi Hoff Hlo) as [w1 [wr [roll [Ei [I [V [Z [S1 RS]]]]]]]].
      assert (Hhi1 : (wnow w1 <= hi)%Z) by (rewrite (same_env_now _ _ S1); exact Hhi).
      assert (Z0 : roll_size_ok roll (length (cur_view w1 wr))) by (rewrite V; exact Z).
      destruct (write_active_tsd c crit e lo hi w1 wr [(wnow (s_w x), 0)] [] roll b Hcfg T Y I Hhi1 ltac:(cbn [length]; lia) Z0)
        as [w' [wr' [roll' [keys' [closed' [E [_ [_ [S' _]]]]]]]]].
      eexists _, w', _, _. split; [exact Es|]. split; [reflexivity|].
      split; [rewrite (write_buffer_init c (s_w x) b _ _ _ w1 Ei); exact E|].
      rewrite (same_env_errs _ _ S'). exact (same_env_errs _ _ S1). }
  destruct o; try contradiction; cbn [sync_step].
  - destruct (WB (s_tl x ++ b)) as [s [w' [s' [rot [Es [Hp [E He]]]]]]]. rewrite Es, Hp, E. split; [reflexivity | exact He].
  - destruct (WB b) as [s [w' [s' [rot [Es [Hp [E He]]]]]]]. rewrite Es, Hp, E. split; [reflexivity | exact He].
  - destruct a as [[closed cur]|].
    + destruct R as [keys [wr [roll [Es [I _]]]]]. rewrite Es. cbn [st_tsd f_poisoned].
      destruct (flush_active_tsd c e lo (s_w x) wr keys closed roll (nth (length closed) keys kd) I) as [w' [wr' [E [_ [_ [_ S']]]]]].
      fold (st_tsd c e (nth (length closed) keys kd) roll wr). rewrite E. split; [reflexivity | exact (same_env_errs _ _ S')].
    + destruct R as [Es _]. rewrite Es. split; reflexivity.
  - destruct a as [[closed cur]|].
    + destruct R as [keys [wr [roll [Es [I [V [Hn ZR]]]]]]]. rewrite Es. cbn [st_tsd f_poisoned f_cfg f_inner].
      assert (Hk : (N.of_nat (length keys) <= usize_max)%N) by (rewrite (td_len _ _ _ _ _ _ _ I); lia).
      destruct (mount_next_rotates_tsd c crit e lo hi (s_w x) wr keys closed roll true Hcfg T Y I Hhi Hk eq_refl)
        as [w' [wr' [roll' [E [_ [_ [_ [S' _]]]]]]]].
      rewrite E. split; [reflexivity | exact (same_env_errs _ _ S')].
    + destruct R as [Es _]. rewrite Es. split; reflexivity.
  - split; reflexivity.
  - split; [exact I | reflexivity].
Qed.

Lemma tsd_run_clean c crit e lo hi : tsdcfg c crit -> tag_ok c -> years_ok e lo hi ->
  forall ops x a n, RelTd c crit e lo n x a -> Forall basic_op ops -> Forall tick_ok ops ->
  (wnow (s_w x) + elapsed ops <= hi)%Z -> (N.of_nat (n + length ops) <= usize_max)%N -> clean_run x ops.
Proof.
  intros Hcfg T Y. induction ops as [|o r IH]; intros x a n R Hb Htk Hhi Hmax; [exact I|].
  inversion Hb as [|o' r' Ho Hr]; subst. inversion Htk as [|o' r' Hto Htr]; subst.
  cbn [elapsed length clean_run] in *. pose proof (elapsed_nonneg r Htr) as Er.
  assert (Hdt : (0 <= dt_of o)%Z) by (destruct o; cbn [dt_of tick_ok] in *; lia).
  destruct (tsd_step_clean c crit e lo hi n x a o Hcfg T Y R Ho Hto ltac:(lia) ltac:(lia)) as [K E].
  pose proof (step_rel_tsd c crit e lo hi n x a o Hcfg T Y R Ho Hto ltac:(lia) ltac:(lia)) as S.
  destruct (step x o) as [x1 ob]. destruct S as [R1 [W1 _]]. cbn [fst snd] in *. split; [exact K|]. split; [exact E|].
  apply (IH x1 _ (S n) R1 Hr Htr); lia.
Qed.

(* at every point of the run the link names the file of the newest key - the last one of the keys of the directory -
   as soon as something has been written (hypotheses of timestampsdirect_stream) *)
Theorem timestampsdirect_symlink_current c crit t0 off ops :
  tsdcfg (nolink c) crit -> tag_ok c -> c_symlink c = true -> Forall basic_op ops -> Forall tick_ok ops ->
  (0 <= t0 + ts_e c off)%Z -> (t0 + elapsed ops + ts_e c off < sec_max)%Z -> (N.of_nat (length ops) <= usize_max)%N ->
  let x := fst (run (sys0 t0 off) (OStart c :: ops)) in
  if has_write ops
  then exists keys, keys <> [] /\ keys_ok keys /\ dir_is c (ts_e c off) (wfs (s_w x)) keys
         /\ wlink (s_w x) = Some (kname c (ts_e c off) (nth (length keys - 1) keys kd))
  else wlink (s_w x) = None.
Proof.
  intros Hcfg T Hs Hb Htk Hlo Hhi Hmax. pose proof Hcfg as (_ & _ & _ & Ha). change (c_async (nolink c)) with (c_async c) in Ha.
  pose proof (start_rel_tsd (nolink c) crit t0 off) as R0.
  assert (Y : years_ok (ts_e (nolink c) off) t0 (t0 + elapsed ops)) by (split; assumption).
  assert (W0 : wnow (s_w (fst (step (sys0 t0 off) (OStart (nolink c))))) = t0) by reflexivity.
  pose proof (tsd_run_clean (nolink c) crit _ _ _ Hcfg T Y ops _ None 0 R0 Hb Htk ltac:(lia) ltac:(cbn [Nat.add]; exact Hmax)) as Hc.
  destruct (symlink_run_state c t0 off ops Hs Ha Hb Hc) as [s [Es [En L]]].
  destruct (link_sim_whole c t0 off ops Hb) as [[Ew _] _]. cbn zeta in *.
  assert (Ef : wfs (s_w (fst (run (sys0 t0 off) (OStart c :: ops)))) = wfs (s_w (fst (run (sys0 t0 off) (OStart (nolink c) :: ops)))))
    by (rewrite Ew; reflexivity).
  rewrite Ef. clear Ef Ew. set (xs := fst (run (sys0 t0 off) (OStart c :: ops))) in *. clearbody xs. cbn [run] in En |- *.
  pose proof (run_rel_tsd (nolink c) crit _ _ _ Hcfg T Y ops _ None 0 R0 Hb Htk ltac:(lia) ltac:(cbn [Nat.add]; exact Hmax)) as [R1 _].
  pose proof (a_run_none_iff ops _ (run_length ops (fst (step (sys0 t0 off) (OStart (nolink c))))) Hb) as AN.
  destruct (step (sys0 t0 off) (OStart (nolink c))) as [xn0 on0]. cbn [fst snd] in *.
  destruct (run xn0 ops) as [xn1 ln]. cbn [fst snd] in *. destruct R1 as [_ [_ R1]].
  destruct (a_run None ops ln) as [[closed cur]|].
  - destruct R1 as [keys [wr [roll [Es1 [I _]]]]]. rewrite Es1 in En. apply inner_of_eq in En. cbn [unl st_tsd f_inner] in En.
    destruct (has_write ops); [|destruct AN as [_ AN]; discriminate (AN eq_refl)].
    exists keys. pose proof (td_len _ _ _ _ _ _ _ I) as Hl.
    split; [destruct keys; [discriminate Hl | discriminate]|]. split; [exact (td_keys _ _ _ _ _ _ _ I)|].
    split; [exact (tsdinv_dir _ _ _ _ _ _ _ I)|].
    rewrite <- En in L. cbn [link_st] in L. rewrite L, Hl. replace (S (length closed) - 1) with (length closed) by lia. reflexivity.
  - destruct R1 as [Es1 _]. rewrite Es1 in En. apply inner_of_eq in En. cbn [unl new_flw f_inner] in En.
    destruct (has_write ops); [destruct AN as [AN _]; discriminate (AN eq_refl)|]. rewrite <- En in L. exact L.
Qed.

Theorem timestampsdirect_stream_symlink c crit t0 off ops :
  tsdcfg (nolink c) crit -> tag_ok c -> Forall basic_op ops -> Forall tick_ok ops ->
  (0 <= t0 + ts_e c off)%Z -> (t0 + elapsed ops + ts_e c off < sec_max)%Z -> (N.of_nat (length ops) <= usize_max)%N ->
  let f := wfs (s_w (fst (run (sys0 t0 off) (OStart c :: ops ++ [OStop])))) in
  (names f = [] /\ written ops = [])
  \/ exists keys files,
       files <> []
       /\ tsd_view c (ts_e c off) f keys files
       /\ concat files = written ops
       /\ keys_ok keys
       /\ (forall k, In k keys -> (t0 <= fst k <= t0 + elapsed ops)%Z).
Proof.
  intros Hcfg T Hb Htk Hlo Hhi Hmax. cbn zeta. rewrite (symlink_final_fs c t0 off ops Hb).
  exact (timestampsdirect_stream (nolink c) crit t0 off ops Hcfg T Hb Htk Hlo Hhi Hmax).
Qed.

Print Assumptions timestampsdirect_symlink_current.
Print Assumptions timestampsdirect_stream_symlink.

Section Examples.
Import String.StringSyntax.
Open Scope string_scope.
Definition with_link (c : config) : config :=
  {| c_spec := c_spec c; c_append := c_append c; c_cap := c_cap c; c_rot := c_rot c; c_utc := c_utc c;
     c_symlink := true; c_bg := c_bg c; c_async := c_async c; c_start := c_start c |}.

(* NumbersDirect naming, size limit 3, buffered writer, symlink *)
Definition exl_c : config := with_link (exd_cfg (ex_sp "log") false (CSize 3) (Some 3%nat)).
Lemma exl_c_ok : numdcfg (nolink exl_c) (CSize 3).
Proof. apply (exd_cfg_ok (ex_sp "log") false (CSize 3) (Some 3%nat)). reflexivity. Qed.

(* three records, the second and the third rotate *)
Definition exl_ops : list op := [OFlush; OWrite (bs "abcd"); OWrite (bs "efgh"); OTick 5; OWrite (bs "ij"); OFlush].
Lemma exl_ops_basic : Forall basic_op exl_ops.
Proof. repeat constructor. Qed.

(* the link after 0, 1, ..., 6 operations of the history, as the model computes it *)
Example exl_links :
  List.map (fun k => wlink (s_w (fst (run (sys0 0 0) (OStart exl_c :: firstn k exl_ops))))) (seq 0 7)
  = [None; None; Some (bs "app_r00000.log"); Some (bs "app_r00001.log"); Some (bs "app_r00001.log");
     Some (bs "app_r00002.log"); Some (bs "app_r00002.log")].
Proof. vm_compute. reflexivity. Qed.

(* the same by the theorem, at the end of the history and after the drop *)
Example exl_current_instance :
  wlink (s_w (fst (run (sys0 0 0) (OStart exl_c :: exl_ops)))) = Some (rname exl_c 2).
Proof. rewrite (numbersdirect_symlink_current exl_c (CSize 3) 0 0 exl_ops exl_c_ok eq_refl exl_ops_basic). vm_compute. reflexivity. Qed.

Example exl_stream_instance :
  let w := s_w (fst (run (sys0 0 0) (OStart exl_c :: exl_ops ++ [OStop]))) in
  exists files, direct_view exl_c (wfs w) files /\ concat files = bs "abcdefghij"
    /\ wlink w = match files with [] => None | _ => Some (rname exl_c (length files - 1)) end.
Proof. exact (numbersdirect_stream_symlink exl_c (CSize 3) 0 0 exl_ops exl_c_ok eq_refl exl_ops_basic). Qed.

(* the directory and the link after the drop, computed *)
Example exl_final :
  (snap_of (fst (run (sys0 0 0) (OStart exl_c :: exl_ops ++ [OStop]))),
   wlink (s_w (fst (run (sys0 0 0) (OStart exl_c :: exl_ops ++ [OStop])))))
  = ([ (bs "app_r00000.log", 0%N, bs "abcd"); (bs "app_r00001.log", 0%N, bs "efgh"); (bs "app_r00002.log", 0%N, bs "ij") ],
     Some (bs "app_r00002.log")).
Proof. vm_compute. reflexivity. Qed.

(* Numbers naming: the link names rCURRENT from the first record on *)
Definition exl_cn : config := with_link (NumRestart.ex_cfg (ex_sp "log") false (CSize 3) (Some 3%nat)).
Example exl_links_numbers :
  List.map (fun k => wlink (s_w (fst (run (sys0 0 0) (OStart exl_cn :: firstn k exl_ops))))) (seq 0 7)
  = [None; None; Some (bs "app_rCURRENT.log"); Some (bs "app_rCURRENT.log"); Some (bs "app_rCURRENT.log");
     Some (bs "app_rCURRENT.log"); Some (bs "app_rCURRENT.log")].
Proof. vm_compute. reflexivity. Qed.

(* The hypothesis "nothing is reported" of symlink_points_to_current cannot be dropped, and this is a property of the
   code (open_log_file creates the symlink BEFORE it opens the file): when the open of the next file fails - here by an
   injected fault; OSetFaults is not a basic operation - the rotation is given up with an error on the error channel
   (ELogFile), the record goes into the old file r00000, all results are normal, and the link names r00001, a file that
   does not exist *)
Definition exl_cu : config := with_link (exd_cfg (ex_sp "log") false (CSize 3) None).
Definition exl_ops_fault : list op := [OWrite (bs "abcd"); OSetFaults [true]; OWrite (bs "efgh")].
Example ex_link_fault :
  let r := run (sys0 0 0) (OStart exl_cu :: exl_ops_fault) in
  (wlink (s_w (fst r)),
   match s_flw (fst r) with Some s => match f_inner s with Active _ _ p => Some p | Initial => None end | None => None end,
   snap_of (fst r), werrs (s_w (fst r)), snd r)
  = (Some (bs "app_r00001.log"), Some (bs "app_r00000.log"),
     [ (bs "app_r00000.log", 0%N, bs "abcdefgh") ], [ELogFile],
     [ObsRes 0 false; ObsRes 0 false; ObsRes 0 false; ObsRes 0 true]).
Proof. vm_compute. reflexivity. Qed.
End Examples.
