(* C19 with rotation: the model does what the specification FaultRotSpec.simr says - for EVERY fault oracle and EVERY
   list of records (Numbers naming, size criterion, direct mode, no cleanup, synchronous, no symlink, no start-time
   part in the name; both with and without append; empty records included).
   The other Fault refinement files use two notions from here as well: fw q fl, the quiet world q with the oracle fl,
   with what each fallible call of the model does on it; and run_writes, which lifts an invariant kept by the log call
   of one record to the run of a list of records. *)
Require Import FL.Base.Bytes FL.Base.BytesFacts FL.Fs.Fs FL.Fs.FsFacts FL.Names.FileSpec FL.Flw.Model
  FL.Flw.ModelFacts FL.Flw.NumFs FL.Flw.NumInv FL.Flw.Run FL.Flw.RunFacts FL.Flw.NumRun FL.Flw.NumListing
  FL.Flw.NumRestart FL.Flw.KillFacts FL.Flw.NumKill FL.Flw.NumKillRestart FL.Flw.FaultFacts FL.Flw.FaultRotSpec.
Require FL.Flw.NumCleanupStep FL.Flw.TsReader FL.Flw.SnapFacts.
From Coq Require Import ZifyN ZifyNat ZifyBool.
Open Scope nat_scope.

Notation nodup_names := NumCleanupStep.nodup_names.
Definition dir_ok (f : fs) : Prop := fs_wf f /\ nodup_names f.

(* ------------------------------------------------------------------ worlds with a fault oracle *)
(* fw q fl: the quiet world q with the oracle fl *)
Definition fw (q : world) (fl : list bool) : world := set_faults q fl.

Lemma tick_fw q fl : tick (fw q fl) = (fst (pop fl), fw q (snd (pop fl))).
Proof. destruct fl as [|f r]; reflexivity. Qed.

Lemma effect_fw q fl g : quiet q -> effect (fw q fl) g = fw (set_fs q (g (wfs q))) fl.
Proof. intros [_ K]. destruct q. cbn in K. subst. reflexivity. Qed.

Lemma report_fw e q fl : quiet q -> report e (fw q fl) = fw (report e q) fl.
Proof. intros [_ K]. destruct q. cbn in K. subst. reflexivity. Qed.

Definition reported (q q' : world) (e : list ecode) : Prop :=
  quiet q' /\ wnow q' = wnow q /\ woff q' = woff q /\ werrs q' = werrs q ++ e /\ wlink q' = wlink q /\ wacts q' = wacts q.

Lemma reported_refl q : quiet q -> reported q q [].
Proof. intros Q. unfold reported. rewrite app_nil_r. repeat split; try apply Q; reflexivity. Qed.
Lemma reported_trans a b c e1 e2 : reported a b e1 -> reported b c e2 -> reported a c (e1 ++ e2).
Proof.
  intros [Q1 [A1 [B1 [C1 [D1 E1]]]]] [Q2 [A2 [B2 [C2 [D2 E2]]]]].
  unfold reported. rewrite C2, C1, app_assoc. repeat split; try apply Q2; congruence.
Qed.
Lemma same_env_reported a b : same_env a b -> reported a b [].
Proof. intros [Q [A [B [C [D E]]]]]. unfold reported. rewrite app_nil_r. repeat split; try apply Q; assumption. Qed.
Lemma reported_nil_same a b : reported a b [] -> same_env a b.
Proof. intros [Q [A [B [C [D E]]]]]. rewrite app_nil_r in C. unfold same_env. repeat split; try apply Q; assumption. Qed.
Lemma report_reported e q : quiet q -> reported q (report e q) [e] /\ wfs (report e q) = wfs q.
Proof. intros [F K]. unfold report. rewrite K. unfold reported, quiet. cbn. repeat split; assumption. Qed.
Lemma set_fs_reported q f : quiet q -> reported q (set_fs q f) [] /\ wfs (set_fs q f) = f.
Proof. intros Q. split; [apply same_env_reported, set_fs_env; exact Q | reflexivity]. Qed.

Lemma reported_now q q' e : reported q q' e -> wnow q' = wnow q.
Proof. intros [_ [H _]]. exact H. Qed.
Lemma reported_acts q q' e : reported q q' e -> wacts q = 0 -> wacts q' = 0.
Proof. intros [_ [_ [_ [_ [_ H]]]]] E. congruence. Qed.
Lemma reported_errs q q' e errs : reported q q' e -> werrs q = errs -> werrs q' = errs ++ e.
Proof. intros [_ [_ [_ [H _]]]] E. congruence. Qed.

Lemma report_ewrite_fw q q' e errs fl : reported q q' e -> wacts q = 0 -> werrs q = errs ->
  report EWrite (fw q' fl) = fw (report EWrite q') fl /\ quiet (report EWrite q') /\ wacts (report EWrite q') = 0
  /\ werrs (report EWrite q') = errs ++ e ++ [EWrite] /\ wfs (report EWrite q') = wfs q'.
Proof.
  intros R Ha He. destruct (report_reported EWrite q' (proj1 R)) as [R4 F4].
  pose proof (reported_trans _ _ _ _ _ R R4) as RR.
  split; [apply report_fw; apply R|]. split; [apply R4|]. split; [exact (reported_acts _ _ _ RR Ha)|].
  split; [rewrite (reported_errs _ _ _ _ RR He), app_assoc; reflexivity | exact F4].
Qed.

(* ---- the primitives ---- *)
Lemma p_write_fw q fl i b : quiet q ->
  exists q', p_write (fw q fl) i b = (negb (fst (wr_pop b fl)), fw q' (snd (wr_pop b fl)))
    /\ same_env q q' /\ wfs q' = (if fst (wr_pop b fl) then wfs q else append_ino (wfs q) i b).
Proof.
  intros Q. unfold p_write, wr_pop. destruct b as [|x b].
  - exists q. cbn [fst snd negb]. split; [reflexivity|]. split; [apply same_env_refl; exact Q|].
    rewrite append_ino_nil_id. reflexivity.
  - rewrite tick_fw. destruct (pop fl) as [f fl1]. cbn [fst snd]. destruct f; cbn [negb].
    + exists q. split; [reflexivity|]. split; [apply same_env_refl; exact Q | reflexivity].
    + rewrite effect_fw by exact Q. eexists. split; [reflexivity|]. split; [apply same_env_set_fs; exact Q | reflexivity].
Qed.

Lemma w_write_fw q fl wr b : quiet q -> wcap wr = None ->
  exists q', w_write (fw q fl) wr b = (negb (fst (wr_pop b fl)), fw q' (snd (wr_pop b fl)), wr)
    /\ same_env q q' /\ wfs q' = (if fst (wr_pop b fl) then wfs q else append_ino (wfs q) (wino wr) b).
Proof.
  intros Q Hc. unfold w_write. rewrite Hc. destruct (p_write_fw q fl (wino wr) b Q) as [q' [E [S F]]]. rewrite E.
  exists q'. auto.
Qed.

Lemma p_rename_fw q fl a b : quiet q ->
  p_rename (fw q fl) a b =
  if fst (pop fl) then (RErr, fw q (snd (pop fl)))
  else match rename (wfs q) a b with
       | Some f1 => (ROk, fw (set_fs q f1) (snd (pop fl)))
       | None => (RNotFound, fw q (snd (pop fl)))
       end.
Proof.
  intros Q. unfold p_rename. rewrite tick_fw. destruct (pop fl) as [f fl1]. cbn [fst snd]. destruct f; [reflexivity|].
  cbn [fw set_faults wfs]. destruct (rename (wfs q) a b) as [f1|] eqn:E; [|reflexivity].
  fold (fw q fl1). rewrite effect_fw by exact Q. rewrite E. reflexivity.
Qed.

Lemma p_remove_fw q fl a : quiet q ->
  p_remove (fw q fl) a =
  if fst (pop fl) then (false, fw q (snd (pop fl)))
  else match lookup (wfs q) a with
       | Some _ => (true, fw (set_fs q (unlink (wfs q) a)) (snd (pop fl)))
       | None => (false, fw q (snd (pop fl)))
       end.
Proof.
  intros Q. unfold p_remove. rewrite tick_fw. destruct (pop fl) as [f fl1]. cbn [fst snd]. destruct f; [reflexivity|].
  cbn [fw set_faults wfs]. destruct (lookup (wfs q) a) as [i|] eqn:E; [|reflexivity].
  fold (fw q fl1). rewrite effect_fw by exact Q. reflexivity.
Qed.

Lemma p_open_fw q fl name app : quiet q ->
  p_open (fw q fl) name app =
  if fst (pop fl) then (None, fw q (snd (pop fl)))
  else if match file_of (wfs q) name with Some fl => fdir fl | None => false end then (None, fw q (snd (pop fl)))
  else (Some (snd (if app then open_append (wfs q) name (wnow q) else open_trunc (wfs q) name 0%N (wnow q))),
        fw (set_fs q (fst (if app then open_append (wfs q) name (wnow q) else open_trunc (wfs q) name 0%N (wnow q)))) (snd (pop fl))).
Proof.
  intros Q. unfold p_open. rewrite tick_fw. destruct (pop fl) as [f fl1]. cbn [fst snd]. destruct f; [reflexivity|].
  cbn [fw set_faults wfs wnow]. destruct (match file_of (wfs q) name with Some fl0 => fdir fl0 | None => false end); [reflexivity|].
  fold (fw q fl1). rewrite effect_fw by exact Q. reflexivity.
Qed.

Lemma open_log_file_fresh_fw c q fl o : quiet q -> fts (c_spec c) = false -> c_symlink c = false ->
  lookup (wfs q) (as_name (c_spec c) (fixed0 c) o) = None ->
  let cf := create_file (wfs q) (as_name (c_spec c) (fixed0 c) o) 0%N (wnow q) in
  open_log_file c (fw q fl) o =
    if fst (pop fl) then (Err, fw q (snd (pop fl)))
    else (Ok ({| wino := snd cf; wpend := []; wcap := c_cap c |}, as_name (c_spec c) (fixed0 c) o), fw (set_fs q (fst cf)) (snd (pop fl))).
Proof.
  intros Q Hts Hlink L. unfold open_log_file. rewrite (name_of_fixed c (fw q fl)) by exact Hts.
  unfold do_symlink. rewrite Hlink, p_open_fw by exact Q. destruct (fst (pop fl)); [reflexivity|].
  rewrite (file_of_missing _ _ L), (open_fresh _ _ _ _ L). reflexivity.
Qed.

Lemma mount_tail_fw c q fl o ns m cur wr path : quiet q -> fts (c_spec c) = false -> c_symlink c = false -> wpend wr = [] ->
  lookup (wfs q) (as_name (c_spec c) (fixed0 c) o) = None ->
  let cf := create_file (wfs q) (as_name (c_spec c) (fixed0 c) o) 0%N (wnow q) in
  (let (r0, w2) := open_log_file c (fw q fl) o in
   match r0 with
   | Ok (wr', path') =>
     let '(okf, w2a, wra) := w_flush w2 wr in
     let '(rc, w4) := cleanup_or_queue c (w_drop (if okf then w2a else report EFlush w2a) wra) false KNever (ns_filter ns)
                        (if ns_writes_direct ns then Some path' else None) in
     (match rc with Ok _ => Ok tt | Err => Err | Panic => Panic end, w4,
      Active (Some {| rs_naming := ns; rs_roll := reset_size_and_date (w_drop (if okf then w2a else report EFlush w2a) wra) (RSize m cur) path';
                      rs_cleanup := KNever; rs_bg := false |}) wr' path')
   | Err => (Err, w2, Active (Some (mk_rs ns (RSize m cur))) wr path)
   | Panic => (Panic, w2, Active (Some (mk_rs ns (RSize m cur))) wr path)
   end) =
  if fst (pop fl) then (Err, fw q (snd (pop fl)), Active (Some (mk_rs ns (RSize m cur))) wr path)
  else (Ok tt, fw (set_fs q (fst cf)) (snd (pop fl)),
        Active (Some (mk_rs ns (RSize m 0))) {| wino := snd cf; wpend := []; wcap := c_cap c |} (as_name (c_spec c) (fixed0 c) o)).
Proof.
  intros Q Hts Hlink Hp L. rewrite (open_log_file_fresh_fw c q fl o Q Hts Hlink L). cbv zeta.
  destruct (pop fl) as [f fl1]. cbn [fst snd]. destruct f; [reflexivity|].
  rewrite w_flush_nop by exact Hp. cbv beta iota zeta. rewrite w_drop_nop by reflexivity.
  unfold cleanup_or_queue. cbn [cleanup_impl reset_size_and_date]. reflexivity.
Qed.

Lemma with_listing_fw {A} q fl (g : world -> option A) :
  with_listing (fw q fl) g =
  if fst (pop fl) then (Err, fw q (snd (pop fl)))
  else match g (fw q (snd (pop fl))) with
       | Some a => (Ok a, fw q (snd (pop fl)))
       | None => (Panic, fw q (snd (pop fl)))
       end.
Proof. unfold with_listing. rewrite tick_fw. destruct (pop fl) as [f fl1]. cbn [fst snd]. destruct f; reflexivity. Qed.

Lemma collision_free_fw c q fl infix : fts (c_spec c) = false ->
  collision_free c (fw q fl) infix =
    if fst (pop fl) then (Err, fw q (snd (pop fl)))
    else if fst (pop (snd (pop fl))) then (Err, fw q (snd (pop (snd (pop fl)))))
    else match collision_free_infix (woff q) (c_spec c) (fixed0 c) (wfs q) infix with
         | Some (Some i) => (Ok i, fw q (snd (pop (snd (pop fl)))))
         | Some None => (Err, fw q (snd (pop (snd (pop fl)))))
         | None => (Panic, fw q (snd (pop (snd (pop fl)))))
         end.
Proof.
  intros Hts. unfold collision_free. rewrite tick_fw. destruct (pop fl) as [f1 fl1]. cbn [fst snd].
  destruct f1; [reflexivity|]. rewrite tick_fw. destruct (pop fl1) as [f2 fl2]. cbn [fst snd].
  destruct f2; [reflexivity|]. rewrite (fixed_of_fixed0 c (fw q fl2) Hts). reflexivity.
Qed.

Lemma index_rotate_fw c q fl idx : quiet q -> fts (c_spec c) = false ->
  index_for_rcurrent c (fw q fl) (Some idx) true =
  if fst (pop fl) then (Err, fw q (snd (pop fl)))
  else match rename (wfs q) (cname c) (nm c (number_infix idx)) with
       | Some f1 => (Ok (idx + 1)%N, fw (set_fs q f1) (snd (pop fl)))
       | None => (Ok idx, fw q (snd (pop fl)))
       end.
Proof.
  intros Q Hts. unfold index_for_rcurrent. rewrite !(name_of_fixed c (fw q fl)) by exact Hts.
  fold (nm c cur_infix) (nm c (number_infix idx)). fold (cname c). rewrite p_rename_fw by exact Q.
  destruct (pop fl) as [f1 fl1]. cbn [fst snd]. destruct f1; [reflexivity|].
  destruct (rename (wfs q) (cname c) (nm c (number_infix idx))); reflexivity.
Qed.

Lemma roll_new_fw q fl m (app : bool) path f : file_of (wfs q) path = Some f -> fdata f = [] ->
  roll_new (fw q fl) (CSize m) app path
  = (let '(f4, fl4) := if app then pop fl else (false, fl) in if f4 then (Err, fw q fl4) else (Ok (RSize m 0), fw q fl4)).
Proof.
  intros F D. unfold roll_new. destruct app; [|reflexivity]. rewrite tick_fw. destruct (pop fl) as [f4 fl4]. cbn [fst snd].
  destruct f4; [reflexivity|]. change (wfs (fw q fl4)) with (wfs q). rewrite F, D. reflexivity.
Qed.

Definition fsys (t0 off : Z) (fl : list bool) : sys := {| s_flw := None; s_w := set_faults (world0 t0 off) fl; s_tl := []; s_dead := false |}.

Lemma run_start c t0 off fl ops :
  run (fsys t0 off fl) (OStart c :: ops)
  = let '(x2, obs) := run (fst (step (fsys t0 off fl) (OStart c))) ops in (x2, ObsRes 0 false :: obs).
Proof. reflexivity. Qed.

Definition obs_normal (o : obs) : Prop := exists rot, o = ObsRes 0 rot.

(* Inv k x st errs fl relates the system x to the state st of a specification (sstep, sim): errs have been reported, the
   oracle is fl, k more records may come.  When the log call of one record keeps it, the run of a list of records does
   what sim says, and every call returns normally. *)
Section Writes.
Variables (St : Type) (sstep : St -> list bool -> bytes -> St * list ecode * list bool).
Variable sim : St -> list bool -> list bytes -> St * list ecode * list bool.
Hypothesis sim_nil : forall st fl, sim st fl [] = (st, [], fl).
Hypothesis sim_cons : forall st fl b rest, sim st fl (b :: rest) =
  let '(st1, e1, fl1) := sstep st fl b in
  let '(st2, e2, fl2) := sim st1 fl1 rest in (st2, e1 ++ e2, fl2).
Variable Inv : nat -> sys -> St -> list ecode -> list bool -> Prop.
Hypothesis write_step : forall k x st errs fl b, Inv (S k) x st errs fl ->
  let '(st', e, fl') := sstep st fl b in
  exists x' rot, step x (OWrite b) = (x', ObsRes 0 rot) /\ Inv k x' st' (errs ++ e) fl'.

Theorem run_writes : forall recs x st errs fl, Inv (length recs) x st errs fl ->
  let '(st', e, fl') := sim st fl recs in
  exists x' obs, run x (List.map OWrite recs) = (x', obs) /\ Inv 0 x' st' (errs ++ e) fl' /\ Forall obs_normal obs.
Proof.
  induction recs as [|b rest IH]; intros x st errs fl I; cbn [List.map run length] in *.
  - rewrite sim_nil. exists x, []. rewrite app_nil_r. split; [reflexivity|]. split; [exact I | constructor].
  - rewrite sim_cons. pose proof (write_step (length rest) x st errs fl b I) as S. destruct (sstep st fl b) as [[st1 e1] fl1].
    destruct S as [x1 [rot [S1 I1]]]. specialize (IH x1 st1 (errs ++ e1) fl1 I1).
    destruct (sim st1 fl1 rest) as [[st2 e2] fl2]. destruct IH as [x2 [obs [R [I2 O]]]].
    exists x2, (ObsRes 0 rot :: obs). rewrite S1, R. split; [reflexivity|]. split; [rewrite app_assoc; exact I2|].
    constructor; [exists rot; reflexivity | exact O].
Qed.
End Writes.

Section Rot.
Variables (c : config) (m : N).
Hypothesis Hcfg : numcfg c (CSize m).
Hypothesis Hcap : c_cap c = None.

(* the state of an initialised writer *)
Definition act (idx cur : N) (wr : writer) : inner := Active (Some (mk_rs (NSNumR idx) (RSize m cur))) wr (cname c).
Definition flw_of (i : inner) : flw := {| f_cfg := c; f_inner := i; f_poisoned := false |}.

(* ---- the rotation check of one write, computed: o is what the rename of rCURRENT finds ---- *)
Lemma mount_next_fw q fl idx cur wr o :
  quiet q -> wpend wr = [] -> rename (wfs q) (cname c) (nm c (number_infix idx)) = o ->
  let q1 := match o with Some f1 => set_fs q f1 | None => q end in
  let idx1 := match o with Some _ => (idx + 1)%N | None => idx end in
  lookup (wfs q1) (cname c) = None ->
  mount_next c (fw q fl) (act idx cur wr) false =
    if (m <? cur)%N then
      if fst (pop fl) then (Err, fw q (snd (pop fl)), act idx cur wr)
      else if fst (pop (snd (pop fl))) then (Err, fw q1 (snd (pop (snd (pop fl)))), act idx1 cur wr)
      else (Ok tt, fw (set_fs q1 (fst (create_file (wfs q1) (cname c) 0%N (wnow q)))) (snd (pop (snd (pop fl)))),
            act idx1 0 {| wino := snd (create_file (wfs q1) (cname c) 0%N (wnow q)); wpend := []; wcap := c_cap c |})
    else (Ok tt, fw q fl, act idx cur wr).
Proof.
  intros Q Hp Eo q1 idx1 L1. destruct Hcfg as [Hrot [Hts [Hlink _]]].
  unfold mount_next, act. cbn [mk_rs rs_roll rs_naming rs_cleanup rs_bg orb rotation_necessary]. unfold size_rotation_necessary.
  destruct (m <? cur)%N; [|reflexivity].
  rewrite (index_rotate_fw c q fl idx Q Hts), Eo.
  destruct (pop fl) as [f1 fl1]; cbn [fst snd]. destruct f1; [reflexivity|].
  assert (Q1 : quiet q1) by (unfold q1; destruct o; [apply quiet_set_fs|]; exact Q).
  assert (N1 : wnow q1 = wnow q) by (unfold q1; destruct o; reflexivity).
  (* the old writer has nothing to flush, there is no cleanup *)
  pose proof (mount_tail_fw c q1 fl1 (Some cur_infix) (NSNumR idx1) m cur wr (cname c) Q1 Hts Hlink Hp L1) as X.
  cbv zeta in X. rewrite N1 in X.
  unfold q1, idx1 in X |- *. destruct o as [f1|]; exact X.
Qed.

Lemma wb_active_rs q fl k bg ns path cur wr r1 q1 fl1 ns1 path1 cur1 wr1 b :
  let rs ns cur := {| rs_naming := ns; rs_roll := RSize m cur; rs_cleanup := k; rs_bg := bg |} in
  mount_next c (fw q fl) (Active (Some (rs ns cur)) wr path) false = (r1, fw q1 fl1, Active (Some (rs ns1 cur1)) wr1 path1) ->
  r1 <> Panic -> quiet q1 -> wcap wr1 = None ->
  exists q3,
    write_buffer (flw_of (Active (Some (rs ns cur)) wr path)) (fw q fl) b
    = ((if fst (wr_pop b fl1) then Err else Ok tt), fw q3 (snd (wr_pop b fl1)),
       flw_of (Active (Some (rs ns1 (if fst (wr_pop b fl1) then cur1 else (cur1 + N.of_nat (length b))%N))) wr1 path1),
       (m <? cur)%N)
    /\ reported q1 q3 (match r1 with Err => [ELogFile] | _ => [] end)
    /\ wfs q3 = (if fst (wr_pop b fl1) then wfs q1 else append_ino (wfs q1) (wino wr1) b).
Proof.
  intros rs M Hr Q1 Hc. unfold write_buffer, flw_of. cbn [f_cfg f_inner]. rewrite M.
  unfold rs. cbn [rs_roll rotation_necessary]. unfold size_rotation_necessary.
  destruct r1 as [[]| |]; [| |contradiction].
  - destruct (w_write_fw q1 fl1 wr1 b Q1 Hc) as [q3 [E [S F]]]. rewrite E.
    exists q3. split; [|split; [apply same_env_reported; exact S | exact F]].
    destruct (fst (wr_pop b fl1)); cbn [negb with_inner f_cfg f_poisoned rs_naming rs_roll rs_cleanup rs_bg increase_size]; reflexivity.
  - rewrite report_fw by exact Q1. destruct (report_reported ELogFile q1 Q1) as [R1 F1].
    destruct (w_write_fw (report ELogFile q1) fl1 wr1 b (proj1 R1) Hc) as [q3 [E [S F]]]. rewrite E.
    exists q3. split; [|split].
    + destruct (fst (wr_pop b fl1)); cbn [negb with_inner f_cfg f_poisoned rs_naming rs_roll rs_cleanup rs_bg increase_size]; reflexivity.
    + pose proof (reported_trans _ _ _ _ _ R1 (same_env_reported _ _ S)) as R. cbn [app] in R. exact R.
    + rewrite F, F1. reflexivity.
Qed.

Lemma wb_active q fl idx cur wr r1 q1 fl1 idx1 cur1 wr1 b :
  mount_next c (fw q fl) (act idx cur wr) false = (r1, fw q1 fl1, act idx1 cur1 wr1) ->
  r1 <> Panic -> quiet q1 -> wcap wr1 = None ->
  exists q3,
    write_buffer (flw_of (act idx cur wr)) (fw q fl) b
    = ((if fst (wr_pop b fl1) then Err else Ok tt), fw q3 (snd (wr_pop b fl1)),
       flw_of (act idx1 (if fst (wr_pop b fl1) then cur1 else (cur1 + N.of_nat (length b))%N) wr1), (m <? cur)%N)
    /\ reported q1 q3 (match r1 with Err => [ELogFile] | _ => [] end)
    /\ wfs q3 = (if fst (wr_pop b fl1) then wfs q1 else append_ino (wfs q1) (wino wr1) b).
Proof. exact (wb_active_rs q fl KNever false (NSNumR idx) (cname c) cur wr r1 q1 fl1 (NSNumR idx1) (cname c) cur1 wr1 b). Qed.

(* ---- the log call around write_buffer ---- *)
Lemma step_write x i b r w1 i1 rot :
  s_flw x = Some (flw_of i) -> s_tl x = [] -> write_buffer (flw_of i) (s_w x) b = (r, w1, flw_of i1, rot) -> r <> Panic ->
  step x (OWrite b) = ({| s_flw := Some (flw_of i1); s_w := match r with Err => report EWrite w1 | _ => w1 end; s_tl := []; s_dead := s_dead x |},
                       ObsRes 0 rot).
Proof.
  intros Es Ht. destruct Hcfg as [_ [Hts [_ Ha]]].
  exact (step_write_sync x (flw_of i) b r w1 (flw_of i1) rot Es eq_refl Hts Ha Ht).
Qed.

(* ---- the writer and its file: on rCURRENT (old = false), or on the file that was rCURRENT and has been renamed to
        r<length cl> while no new rCURRENT could be created (old = true): q is then the image under that rename of a
        world q0 in which the invariant of the fault-free development holds ---- *)
Definition AInv (old : bool) (q : world) (wr : writer) (cl : list bytes) (d : bytes) : Prop :=
  nodup_names (wfs q) /\
  if old then exists q0, NumInv c q0 wr cl /\ cur_view q0 wr = d /\ rename (wfs q0) (cname c) (rname c (length cl)) = Some (wfs q)
  else NumInv c q wr cl /\ cur_view q wr = d.
Definition idx_of (old : bool) (cl : list bytes) : N := if old then (N.of_nat (length cl) + 1)%N else N.of_nat (length cl).
Definition st_same (old : bool) (cl : list bytes) (d : bytes) : sst := if old then SOld cl d else SCur cl d.

Lemma rename_append f a b' i x f1 : rename f a b' = Some f1 -> rename (append_ino f i x) a b' = Some (append_ino f1 i x).
Proof.
  unfold rename. rewrite lookup_append. destruct (lookup f a) as [j|]; [|discriminate]. intros E. injection E as <-. reflexivity.
Qed.

Lemma ainv_direct old q wr cl d : AInv old q wr cl d -> wpend wr = [] /\ wcap wr = None.
Proof. destruct old; [intros [_ [q0 [I _]]] | intros [_ [I _]]]; exact (direct_wr c Hcap _ wr cl I). Qed.

Lemma ainv_env old q q' wr cl d : AInv old q wr cl d -> wfs q' = wfs q -> quiet q' -> AInv old q' wr cl d.
Proof.
  intros [Nd A] F Q'. split; [rewrite F; exact Nd|]. destruct old.
  - destruct A as [q0 [I [V R]]]. exists q0. rewrite F. auto.
  - destruct A as [I V]. split; [exact (numinv_env c q q' wr cl I F Q')|]. unfold cur_view in *. rewrite F. exact V.
Qed.

Lemma ainv_append old q q' wr cl d b : AInv old q wr cl d -> wpend wr = [] -> quiet q' -> wfs q' = append_ino (wfs q) (wino wr) b ->
  AInv old q' wr cl (d ++ b).
Proof.
  intros [Nd A] Hp Q' F. split; [rewrite F; apply NumCleanupStep.nd_append; exact Nd|]. destruct old.
  - destruct A as [q0 [I [V R]]]. pose proof (ni_quiet _ _ _ _ I) as Q0.
    destruct (numinv_append c q0 (set_fs q0 (append_ino (wfs q0) (wino wr) b)) wr wr cl b I eq_refl
                (same_env_set_fs q0 _ Q0) eq_refl eq_refl (ni_wr _ _ _ _ I)) as [I2 C2].
    exists (set_fs q0 (append_ino (wfs q0) (wino wr) b)). split; [exact I2|]. split.
    + unfold cur_view in *. rewrite C2, Hp, app_nil_r in *. rewrite V. reflexivity.
    + cbn [set_fs wfs]. rewrite F. apply rename_append. exact R.
  - destruct A as [I V].
    assert (I' : NumInv c (set_fs q' (wfs q)) wr cl) by exact (numinv_env c q (set_fs q' (wfs q)) wr cl I eq_refl (quiet_set_fs q' _ Q')).
    assert (S : same_env (set_fs q' (wfs q)) q') by (unfold same_env; cbn; repeat split; try apply Q'; reflexivity).
    destruct (numinv_append c (set_fs q' (wfs q)) q' wr wr cl b I' F S eq_refl eq_refl (ni_wr _ _ _ _ I)) as [I2 C2].
    split; [exact I2|]. unfold cur_view in *. cbn [set_fs wfs] in C2. rewrite C2, Hp, app_nil_r in *. rewrite V. reflexivity.
Qed.

(* what the rename of rCURRENT finds, and the world after it *)
Lemma ainv_rename old q wr cl d : AInv old q wr cl d ->
  exists o, rename (wfs q) (cname c) (nm c (number_infix (idx_of old cl))) = o /\
    let q1 := match o with Some f1 => set_fs q f1 | None => q end in
    lookup (wfs q1) (cname c) = None /\ AInv true q1 wr cl d
    /\ match o with Some _ => (idx_of old cl + 1)%N | None => idx_of old cl end = idx_of true cl.
Proof.
  intros [Nd A]. destruct old; cbn [idx_of].
  - destruct A as [q0 [I [V R]]]. destruct (rotate_numinv c q0 wr cl 0%Z I) as [f1 [Er [L1 _]]].
    rewrite Er in R. injection R as R.
    exists None. split; [apply rename_none; rewrite <- R; exact L1|]. cbv zeta.
    split; [rewrite <- R; exact L1|]. split; [|reflexivity]. split; [exact Nd|]. exists q0. rewrite <- R. auto.
  - destruct A as [I V]. destruct (rotate_numinv c q wr cl 0%Z I) as [f1 [Er [L1 _]]].
    exists (Some f1). split; [exact Er|]. cbv zeta. cbn [set_fs wfs]. split; [exact L1|]. split; [|reflexivity].
    split; [exact (NumCleanupStep.nd_rename _ _ _ _ Er Nd)|]. exists q. auto.
Qed.

Lemma numinv_wr q wr wr' cl : NumInv c q wr cl -> wino wr' = wino wr -> wcap wr' = wcap wr -> wr_ok wr' -> NumInv c q wr' cl.
Proof.
  intros [Q W Hc Hcp Hcl Hon Hwr Hcp'] Ei Ec Ho. constructor; try assumption; try (rewrite Ei; assumption). rewrite Ec. exact Hcp'.
Qed.

(* the creation of the new rCURRENT completes a rotation; x is what the flush of the old writer still brought into the
   old file (nothing in direct mode) *)
Lemma ainv_create q wr cl d x q3 now : AInv true q wr cl d -> wpend wr = [] ->
  wr_ok {| wino := wino wr; wpend := x; wcap := wcap wr |} -> quiet q3 ->
  wfs q3 = append_ino (fst (create_file (wfs q) (cname c) 0%N now)) (wino wr) x ->
  AInv false q3 {| wino := snd (create_file (wfs q) (cname c) 0%N now); wpend := []; wcap := c_cap c |} (cl ++ [d ++ x]) [].
Proof.
  intros [Nd [q0 [I [V R]]]] Hp Hx Q3 F3.
  assert (Ix : NumInv c q0 {| wino := wino wr; wpend := x; wcap := wcap wr |} cl)
    by (apply (numinv_wr q0 wr); [exact I | reflexivity | reflexivity | exact Hx]).
  destruct (rotate_numinv c q0 _ cl now Ix) as [f1 [Er [L1 RI]]]. rewrite Er in R. injection R as R. rewrite <- R in *.
  destruct (RI q3 Q3 F3) as [I3 [V3 _]]. unfold cur_view in V, I3. cbn [wino wpend] in *.
  rewrite Hp, app_nil_r in V. rewrite V in I3.
  split; [rewrite F3; apply NumCleanupStep.nd_append, NumCleanupStep.nd_create; assumption | split; assumption].
Qed.

(* ------------------------------------------------------------------ the invariant of the run *)
Definition FInv (x : sys) (st : sst) (errs : list ecode) (fl : list bool) : Prop :=
  exists q, s_w x = fw q fl /\ quiet q /\ wacts q = 0 /\ werrs q = errs /\ s_tl x = [] /\
  match st with
  | SInit created =>
    s_flw x = Some (flw_of Initial) /\ dir_ok (wfs q) /\ reader_view_opt c (wfs q) [] (if created then Some [] else None)
    /\ (created = true -> c_append c = true)
  | SCur cl d => exists wr, s_flw x = Some (flw_of (act (idx_of false cl) (N.of_nat (length d)) wr)) /\ AInv false q wr cl d
  | SOld cl d => exists wr, s_flw x = Some (flw_of (act (idx_of true cl) (N.of_nat (length d)) wr)) /\ AInv true q wr cl d
  end.

Lemma finv_same x old cl d errs fl q wr :
  s_w x = fw q fl -> quiet q -> wacts q = 0 -> werrs q = errs -> s_tl x = [] ->
  s_flw x = Some (flw_of (act (idx_of old cl) (N.of_nat (length d)) wr)) -> AInv old q wr cl d ->
  FInv x (st_same old cl d) errs fl.
Proof. intros. exists q. destruct old; cbn [st_same]; repeat (split; [assumption|]); exists wr; split; assumption. Qed.

(* the rotation check has been made (result r1, world q1, oracle fl1, writer wr1 on a file that holds d1): the write *)
Lemma tail_step x q fl idx cur wr r1 q1 fl1 old1 cl1 d1 wr1 errs1 b :
  s_w x = fw q fl -> s_tl x = [] -> s_flw x = Some (flw_of (act idx cur wr)) ->
  mount_next c (fw q fl) (act idx cur wr) false = (r1, fw q1 fl1, act (idx_of old1 cl1) (N.of_nat (length d1)) wr1) ->
  r1 <> Panic -> quiet q1 -> wacts q1 = 0 -> werrs q1 = errs1 -> AInv old1 q1 wr1 cl1 d1 ->
  let '(d', e, fl2) := s_write d1 b fl1 in
  exists x' rot, step x (OWrite b) = (x', ObsRes 0 rot)
    /\ FInv x' (st_same old1 cl1 d') (errs1 ++ (match r1 with Err => [ELogFile] | _ => [] end) ++ e) fl2.
Proof.
  intros Ew Ht Es M Hr Q1 Ha1 He1 A1.
  destruct (ainv_direct _ _ _ _ _ A1) as [Hp1 Hc1].
  destruct (wb_active q fl idx cur wr r1 q1 fl1 _ _ wr1 b M Hr Q1 Hc1) as [q3 [E [R3 F3]]].
  unfold s_write. destruct (wr_pop b fl1) as [f fl2]. cbn [fst snd] in *.
  rewrite <- Ew in E. pose proof (step_write x _ b _ _ _ _ Es Ht E) as S.
  destruct f.
  - (* the write fails: reported by the handle *)
    eexists _, _. split; [apply S; discriminate|].
    destruct (report_ewrite_fw q1 q3 _ errs1 fl2 R3 Ha1 He1) as [Ew' [Q' [Ha' [He' F4]]]].
    apply (finv_same _ old1 cl1 d1 _ fl2 (report EWrite q3) wr1); cbn [s_w s_tl s_flw]; try assumption; try reflexivity.
    apply (ainv_env old1 q1); [exact A1 | rewrite F4; exact F3 | exact Q'].
  - eexists _, _. split; [apply S; discriminate|].
    apply (finv_same _ old1 cl1 (d1 ++ b) _ fl2 q3 wr1); cbn [s_w s_tl s_flw].
    + reflexivity.
    + apply R3.
    + exact (reported_acts _ _ _ R3 Ha1).
    + rewrite (reported_errs _ _ _ _ R3 He1), app_nil_r. reflexivity.
    + reflexivity.
    + rewrite app_length, Nat2N.inj_add. reflexivity.
    + apply (ainv_append old1 q1); [exact A1 | exact Hp1 | apply R3 | exact F3].
Qed.

(* one record on an initialised writer *)
Lemma active_step x old q fl errs cl d wr b :
  s_w x = fw q fl -> quiet q -> wacts q = 0 -> werrs q = errs -> s_tl x = [] ->
  s_flw x = Some (flw_of (act (idx_of old cl) (N.of_nat (length d)) wr)) -> AInv old q wr cl d ->
  let '(st', e, fl') := s_active m old cl d b fl in
  exists x' rot, step x (OWrite b) = (x', ObsRes 0 rot) /\ FInv x' st' (errs ++ e) fl'.
Proof.
  intros Ew Q Ha He Ht Es A.
  destruct (ainv_direct _ _ _ _ _ A) as [Hp Hc].
  destruct (ainv_rename old q wr cl d A) as [o [Eo Ho]]. cbv zeta in Ho. destruct Ho as [L1 [A1 Ei]].
  pose proof (mount_next_fw q fl (idx_of old cl) (N.of_nat (length d)) wr o Q Hp Eo L1) as M. rewrite Ei in M.
  set (q1 := match o with Some f1 => set_fs q f1 | None => q end) in *.
  assert (Q1 : quiet q1) by (unfold q1; destruct o; [apply quiet_set_fs|]; exact Q).
  assert (Ha1 : wacts q1 = 0) by (unfold q1; destruct o; exact Ha).
  assert (He1 : werrs q1 = errs) by (unfold q1; destruct o; exact He).
  unfold s_active. fold (st_same old cl).
  destruct (m <? N.of_nat (length d))%N.
  - destruct (pop fl) as [f1 fl1]. cbn [fst snd] in M. destruct f1.
    + (* the rename fails *)
      pose proof (tail_step x q fl _ _ wr Err q fl1 old cl d wr errs b Ew Ht Es M (fun H => ltac:(discriminate H)) Q Ha He A) as T.
      destruct (s_write d b fl1) as [[d' e] fl2]. exact T.
    + destruct (pop fl1) as [f2 fl2]. cbn [fst snd] in M. destruct f2.
      * (* the new current file cannot be created *)
        pose proof (tail_step x q fl _ _ wr Err q1 fl2 true cl d wr errs b Ew Ht Es M (fun H => ltac:(discriminate H)) Q1 Ha1 He1 A1) as T.
        destruct (s_write d b fl2) as [[d' e] fl3]. exact T.
      * (* the rotation is completed *)
        set (q3 := set_fs q1 (fst (create_file (wfs q1) (cname c) 0%N (wnow q)))) in *.
        set (wr3 := {| wino := snd (create_file (wfs q1) (cname c) 0%N (wnow q)); wpend := []; wcap := c_cap c |}) in *.
        assert (Q3 : quiet q3) by (apply quiet_set_fs; exact Q1).
        assert (A3 : AInv false q3 wr3 (cl ++ [d ++ []]) []).
        { apply (ainv_create q1 wr cl d [] q3 (wnow q) A1 Hp); [unfold wr_ok; cbn [wcap wpend]; rewrite Hc; reflexivity | exact Q3|].
          cbn [q3 set_fs wfs]. rewrite append_ino_nil_id. reflexivity. }
        rewrite app_nil_r in A3.
        assert (Ei3 : idx_of true cl = idx_of false (cl ++ [d])) by (cbn [idx_of]; rewrite app_length; cbn [length]; lia).
        rewrite Ei3 in M. change 0%N with (N.of_nat (length (@nil N))) in M.
        pose proof (tail_step x q fl _ _ wr (Ok tt) q3 fl2 false (cl ++ [d]) [] wr3 errs b Ew Ht Es M (fun H => ltac:(discriminate H)) Q3 Ha1 He1 A3) as T.
        destruct (s_write [] b fl2) as [[d' e] fl3]. exact T.
  - pose proof (tail_step x q fl _ _ wr (Ok tt) q fl old cl d wr errs b Ew Ht Es M (fun H => ltac:(discriminate H)) Q Ha He A) as T.
    destruct (s_write d b fl) as [[d' e] fl1]. exact T.
Qed.

(* ------------------------------------------------------------------ the initialisation *)
Lemma create_view f cl now : fs_wf f -> reader_view_opt c f cl None ->
  fs_wf (fst (create_file f (cname c) 0%N now))
  /\ reader_view_opt c (fst (create_file f (cname c) 0%N now)) cl (Some [])
  /\ lookup (fst (create_file f (cname c) 0%N now)) (cname c) = Some (snd (create_file f (cname c) 0%N now)).
Proof.
  intros W [Hcl [Hnc Hon]].
  pose proof (create_file_spec f (cname c) 0%N now) as CS.
  pose proof (wf_create f (cname c) 0%N now W Hnc) as W2.
  destruct (create_file f (cname c) 0%N now) as [f2 new] eqn:Ecf. cbn [fst snd] in *.
  destruct CS as [Enew [Hino [Lc Lo]]].
  assert (Inew : inode f2 new = fresh_file now).
  { unfold inode. rewrite Hino, Enew, inode_app_new. reflexivity. }
  assert (Iold : forall j, j < length (inodes f) -> inode f2 j = inode f j).
  { intros j Hj. unfold inode. rewrite Hino, inode_app_old by assumption. reflexivity. }
  split; [exact W2|]. split; [|exact Lc].
  split; [|split].
  - intros i Hi. destruct (Hcl i Hi) as [j [Lj [Pj Cj]]]. exists j.
    rewrite Lo by apply rname_not_cname. split; [exact Lj|].
    pose proof (wf_bound _ W _ _ Lj) as Hj. unfold content. rewrite Iold by exact Hj. split; [exact Pj | exact Cj].
  - exists new. split; [exact Lc|]. unfold content. rewrite Inew. split; [split; reflexivity | reflexivity].
  - intros n j Hn. destruct (beq_spec n (cname c)) as [->|Hne]; [left; reflexivity|].
    rewrite Lo in Hn by exact Hne. exact (Hon n j Hn).
Qed.

Lemma numinv_of_view_opt w cl cu j : quiet w -> fs_wf (wfs w) -> nodup_names (wfs w) -> reader_view_opt c (wfs w) cl (Some cu) ->
  lookup (wfs w) (cname c) = Some j ->
  AInv false w {| wino := j; wpend := []; wcap := c_cap c |} cl cu.
Proof.
  clear Hcap. intros Q W Nd [Hcl [[j' [Lj [Pj Cj]]] Hon]] L. assert (j' = j) by congruence. subst j'. split; [exact Nd|]. split.
  - constructor; cbn [wino wpend wcap]; try assumption.
    + unfold wr_ok. cbn. destruct (c_cap c); [lia | reflexivity].
    + reflexivity.
  - unfold cur_view. cbn [wino wpend]. rewrite app_nil_r. exact Cj.
Qed.

(* the open/create of rCURRENT by a writer that is being initialised *)
Lemma open_init q fl (created : bool) :
  quiet q -> fs_wf (wfs q) -> nodup_names (wfs q) -> reader_view_opt c (wfs q) [] (if created then Some [] else None) ->
  (created = true -> c_append c = true) ->
  exists f2 ino,
    open_log_file c (fw q fl) (Some cur_infix)
    = (if fst (pop fl) then (Err, fw q (snd (pop fl)))
       else (Ok ({| wino := ino; wpend := []; wcap := c_cap c |}, cname c), fw (set_fs q f2) (snd (pop fl))))
    /\ fs_wf f2 /\ nodup_names f2 /\ reader_view_opt c f2 [] (Some []) /\ lookup f2 (cname c) = Some ino.
Proof.
  intros Q W Nd R Hc. destruct Hcfg as [Hrot [Hts [Hlink _]]].
  set (opn := if c_append c then open_append (wfs q) (cname c) (wnow q) else open_trunc (wfs q) (cname c) 0%N (wnow q)).
  assert (Hop : fs_wf (fst opn) /\ reader_view_opt c (fst opn) [] (Some []) /\ lookup (fst opn) (cname c) = Some (snd opn)
                /\ match file_of (wfs q) (cname c) with Some fl0 => fdir fl0 | None => false end = false).
  { destruct created.
    - pose proof R as [_ [[j [Lj [Pj Cj]]] _]].
      assert (E : opn = (wfs q, j)) by (unfold opn, open_append; rewrite (Hc eq_refl), Lj; reflexivity).
      rewrite E. cbn [fst snd]. split; [exact W|]. split; [exact R|]. split; [exact Lj|].
      unfold file_of. rewrite Lj. apply Pj.
    - pose proof R as [_ [Lc _]].
      unfold opn. rewrite (open_fresh _ _ _ _ Lc). destruct (create_view (wfs q) [] (wnow q) W R) as [H1 [H2 H3]].
      split; [exact H1|]. split; [exact H2|]. split; [exact H3|]. unfold file_of. rewrite Lc. reflexivity. }
  destruct Hop as [H1 [H2 [H3 H4]]].
  assert (Nd2 : nodup_names (fst opn))
    by (unfold opn; destruct (c_append c); [apply NumCleanupStep.nd_open_append | apply NumCleanupStep.nd_open_trunc]; exact Nd).
  exists (fst opn), (snd opn). split; [|auto].
  unfold open_log_file. rewrite (name_of_fixed c (fw q fl)) by assumption. fold (nm c cur_infix) (cname c).
  unfold do_symlink. rewrite Hlink. rewrite p_open_fw by exact Q. rewrite H4. fold opn.
  destruct (fst (pop fl)); reflexivity.
Qed.

(* the oracle entries of one initialisation: None = it succeeds; Some k = it fails (k: after rCURRENT was created) *)
Definition s_init_pops (app : bool) (fl : list bool) : option bool * list bool :=
  let '(f1, fl1) := pop fl in
  if f1 then (Some false, fl1) else
  let '(f2, fl2) := if app then (false, fl1) else pop fl1 in
  if f2 then (Some false, fl2) else
  let '(f3, fl3) := pop fl2 in
  if f3 then (Some false, fl3) else
  let '(f4, fl4) := if app then pop fl3 else (false, fl3) in
  if f4 then (Some true, fl4) else (None, fl4).

Lemma s_init_alt app created b fl :
  s_init app m created b fl
  = match s_init_pops app fl with
    | (Some k, fl') => (SInit (created || k), [EWrite], fl')
    | (None, fl') => s_active m false [] [] b fl'
    end.
Proof.
  unfold s_init, s_init_pops. destruct (pop fl) as [f1 fl1]. destruct f1; [rewrite Bool.orb_false_r; reflexivity|].
  destruct (if app then (false, fl1) else pop fl1) as [f2 fl2]. destruct f2; [rewrite Bool.orb_false_r; reflexivity|].
  destruct (pop fl2) as [f3 fl3]. destruct f3; [rewrite Bool.orb_false_r; reflexivity|].
  destruct (if app then pop fl3 else (false, fl3)) as [f4 fl4]. destruct f4; [rewrite Bool.orb_true_r; reflexivity | reflexivity].
Qed.

Lemma initialize_fw q fl (created : bool) :
  quiet q -> dir_ok (wfs q) -> reader_view_opt c (wfs q) [] (if created then Some [] else None) ->
  (created = true -> c_append c = true) ->
  match s_init_pops (c_append c) fl with
  | (Some k, fl') =>
    exists q', initialize c (fw q fl) = (Err, fw q' fl') /\ same_env q q' /\ dir_ok (wfs q')
      /\ reader_view_opt c (wfs q') [] (if created || k then Some [] else None) /\ (created || k = true -> c_append c = true)
  | (None, fl') =>
    exists q' ino, initialize c (fw q fl) = (Ok (act 0 0 {| wino := ino; wpend := []; wcap := c_cap c |}), fw q' fl') /\ same_env q q'
      /\ AInv false q' {| wino := ino; wpend := []; wcap := c_cap c |} [] []
  end.
Proof.
  intros Q W R Hc. pose proof Hcfg as [Hrot [Hts [Hlink _]]].
  (* a failure before rCURRENT is created *)
  assert (Fail : forall fl', exists q', (Err : res inner, fw q fl') = (Err, fw q' fl') /\ same_env q q' /\ dir_ok (wfs q')
      /\ reader_view_opt c (wfs q') [] (if created || false then Some [] else None) /\ (created || false = true -> c_append c = true)).
  { intros fl'. exists q. rewrite Bool.orb_false_r. split; [reflexivity|]. split; [apply same_env_refl; exact Q|]. auto. }
  unfold initialize. rewrite Hrot. unfold init_naming, index_for_rcurrent, with_listing. rewrite tick_fw.
  unfold s_init_pops. destruct (pop fl) as [f1 fl1]. cbn [fst snd]. destruct f1; [cbn [bind]; apply Fail|].
  rewrite fixed_of_fixed0 by assumption. change (woff (fw q fl1)) with (woff q). change (wfs (fw q fl1)) with (wfs q).
  rewrite (highest_index_view_opt c (woff q) (wfs q) [] _ R) by (cbn [length]; apply N.le_0_l). cbn [length].
  (* the rename of an old rCURRENT: there is none *)
  assert (E0 : (if negb (c_append c)
                then let '(r, w1) := p_rename (fw q fl1) (name_of c (fw q fl1) (Some cur_infix)) (name_of c (fw q fl1) (Some (number_infix 0))) in
                     match r with ROk => (Ok (0 + 1)%N, w1) | RNotFound => (Ok 0%N, w1) | RErr => (Err, w1) end
                else (Ok 0%N, fw q fl1))
               = (let '(f2, fl2) := if c_append c then (false, fl1) else pop fl1 in
                  if f2 then (Err, fw q fl2) else (Ok 0%N, fw q fl2))).
  { destruct (c_append c) eqn:Happ; cbn [negb]; [reflexivity|].
    rewrite p_rename_fw by exact Q. destruct (pop fl1) as [f2 fl2]. cbn [fst snd]. destruct f2; [reflexivity|].
    rewrite rename_none; [reflexivity|]. rewrite (name_of_fixed c (fw q fl1)) by assumption. fold (nm c cur_infix) (cname c).
    destruct created; [discriminate (Hc eq_refl)|]. apply R. }
  rewrite E0. clear E0.
  destruct (if c_append c then (false, fl1) else pop fl1) as [f2 fl2]. destruct f2; [cbn [bind]; apply Fail|]. cbn [bind].
  destruct (open_init q fl2 created Q (proj1 W) (proj2 W) R Hc) as [f2 [ino [Eop [W2 [Nd2 [R2 L2]]]]]]. rewrite Eop.
  destruct (pop fl2) as [f3 fl3]. cbn [fst snd]. destruct f3; [cbn [bind]; apply Fail|]. cbn [bind].
  set (q2 := set_fs q f2). assert (Q2 : quiet q2) by (apply quiet_set_fs; exact Q).
  pose proof R2 as [_ [[j [Lj [Pj Cj]]] _]]. assert (j = ino) by congruence. subst j.
  rewrite (roll_new_fw q2 fl3 m (c_append c) (cname c) (inode f2 ino) (file_of_lookup f2 _ _ L2) Cj).
  destruct (if c_append c then pop fl3 else (false, fl3)) as [f4 fl4] eqn:E4. destruct f4; cbn [bind].
  - (* the metadata call fails: rCURRENT has been created *)
    exists q2. rewrite Bool.orb_true_r. split; [reflexivity|]. split; [apply same_env_set_fs; exact Q|].
    split; [exact (conj W2 Nd2)|]. split; [exact R2|]. intros _. destruct (c_append c); [reflexivity | discriminate E4].
  - exists q2, ino. split; [reflexivity|]. split; [apply same_env_set_fs; exact Q|].
    exact (numinv_of_view_opt q2 [] [] ino Q2 W2 Nd2 R2 L2).
Qed.

Lemma step_write_eq x x1 i i1 b :
  s_flw x = Some (flw_of i) -> s_flw x1 = Some (flw_of i1) -> s_tl x = [] -> s_tl x1 = [] -> s_dead x1 = s_dead x ->
  write_buffer (flw_of i) (s_w x) b = write_buffer (flw_of i1) (s_w x1) b ->
  step x (OWrite b) = step x1 (OWrite b).
Proof.
  intros Es Es1 Ht Ht1 Hd. destruct Hcfg as [_ [Hts [_ Ha]]].
  exact (step_write_same x x1 (flw_of i) (flw_of i1) b Es Es1 eq_refl eq_refl eq_refl Hts Ha Ht Ht1 Hd).
Qed.

(* one record on a writer that is not initialised *)
Lemma init_step x created errs fl b : FInv x (SInit created) errs fl ->
  let '(st', e, fl') := s_init (c_append c) m created b fl in
  exists x' rot, step x (OWrite b) = (x', ObsRes 0 rot) /\ FInv x' st' (errs ++ e) fl'.
Proof.
  intros [q [Ew [Q [Ha [He [Ht [Es [W [R Hc]]]]]]]]]. rewrite s_init_alt.
  pose proof (initialize_fw q fl created Q W R Hc) as IF.
  destruct (s_init_pops (c_append c) fl) as [[k|] fl'].
  - (* the initialisation fails: the record is lost, the handle reports it, the writer stays uninitialised *)
    destruct IF as [q' [Ei [S [W' [R' Hc']]]]].
    assert (E : write_buffer (flw_of Initial) (s_w x) b = (Err, fw q' fl', flw_of Initial, false)).
    { rewrite Ew. unfold write_buffer. cbn [flw_of f_cfg f_inner]. rewrite Ei. reflexivity. }
    eexists _, _. split; [apply (step_write x Initial b Err _ Initial false Es Ht E); discriminate|].
    destruct (report_ewrite_fw q q' [] errs fl' (same_env_reported _ _ S) Ha He) as [Ew' [Q' [Ha' [He' F4]]]].
    exists (report EWrite q'). cbn [s_w s_tl s_flw]. rewrite F4. auto 10.
  - destruct IF as [q' [ino [Ei [S A]]]]. set (wr := {| wino := ino; wpend := []; wcap := c_cap c |}) in *.
    set (x1 := {| s_flw := Some (flw_of (act 0 0 wr)); s_w := fw q' fl'; s_tl := []; s_dead := s_dead x |}).
    assert (E : step x (OWrite b) = step x1 (OWrite b)).
    { apply (step_write_eq x x1 Initial (act 0 0 wr) b Es eq_refl Ht eq_refl eq_refl). rewrite Ew. cbn [x1 s_w].
      exact (write_buffer_init c (fw q fl) b _ wr (cname c) (fw q' fl') Ei). }
    rewrite E.
    apply (active_step x1 false q' fl' errs [] [] wr b eq_refl (proj1 S)).
    + exact (same_env_acts _ _ S Ha).
    + destruct S as [_ [_ [_ [H _]]]]. congruence.
    + reflexivity.
    + reflexivity.
    + exact A.
Qed.

Theorem fstep x st errs fl b : FInv x st errs fl ->
  let '(st', e, fl') := sstep (c_append c) m st fl b in
  exists x' rot, step x (OWrite b) = (x', ObsRes 0 rot) /\ FInv x' st' (errs ++ e) fl'.
Proof.
  intros I. destruct st as [created|cl d|cl d]; cbn [sstep].
  - apply init_step. exact I.
  - destruct I as [q [Ew [Q [Ha [He [Ht [wr [Es A]]]]]]]]. exact (active_step x false q fl errs cl d wr b Ew Q Ha He Ht Es A).
  - destruct I as [q [Ew [Q [Ha [He [Ht [wr [Es A]]]]]]]]. exact (active_step x true q fl errs cl d wr b Ew Q Ha He Ht Es A).
Qed.

Definition frun := run_writes sst (sstep (c_append c) m) (simr_st (c_append c) m) (fun _ _ => eq_refl) (fun _ _ _ _ => eq_refl)
                    (fun _ => FInv) (fun _ => fstep).

(* what the invariant says about the world *)
Lemma finv_final x st errs fl : FInv x st errs fl ->
  fs_wf (wfs (s_w x)) /\ reader_view_opt c (wfs (s_w x)) (st_closed st) (st_cur st)
  /\ werrs (s_w x) = errs /\ wfaults (s_w x) = fl /\ wkill (s_w x) = None.
Proof.
  intros [q [Ew [Q [Ha [He [Ht I]]]]]]. rewrite Ew. cbn [fw set_faults wfs werrs wfaults wkill].
  assert (V : fs_wf (wfs q) /\ reader_view_opt c (wfs q) (st_closed st) (st_cur st)).
  { destruct st as [created|cl d|cl d]; cbn [st_closed st_cur].
    - destruct I as [_ [[W _] [R _]]]. auto.
    - destruct I as [wr [_ [_ [I V]]]]. destruct (direct_wr c Hcap _ wr cl I) as [Hp _]. rewrite <- V. exact (numinv_view c q wr cl I Hp).
    - destruct I as [wr [_ [_ [q0 [I [V R]]]]]]. destruct (direct_wr c Hcap _ wr cl I) as [Hp _].
      destruct (rename_view c q0 wr cl (wfs q) I R) as [W RV]. split; [exact W|].
      unfold cur_view in V. rewrite Hp, app_nil_r in V. rewrite V in RV. exact RV. }
  destruct V as [W V]. split; [exact W|]. split; [exact V|]. split; [exact He|]. split; [reflexivity | apply Q].
Qed.

(* when the oracle is exhausted and the writer is on rCURRENT, the state is related to the view (closed files, current
   content) by the very relation of the fault-free development: all its theorems apply to what follows *)
Theorem finv_rel x cl d errs : FInv x (SCur cl d) errs [] -> Rel c (CSize m) x (Some (cl, d)).
Proof.
  intros [q [Ew [Q [Ha [He [Ht [wr [Es [_ [I V]]]]]]]]]].
  split; [exact Ht|]. split; [rewrite Ew; exact Ha|].
  exists wr, (RSize m (N.of_nat (length d))). split; [exact Es|].
  split. { rewrite Ew. apply (numinv_env c q); [exact I | reflexivity | split; [reflexivity | apply Q]]. }
  split; [rewrite Ew; exact V|]. split; [reflexivity|]. intros m' E. injection E as <-. eauto.
Qed.

Lemma finv_start t0 off fl : FInv (fst (step (fsys t0 off fl) (OStart c))) (SInit false) [] fl.
Proof.
  exists (world0 t0 off). split; [reflexivity|]. split; [split; reflexivity|]. split; [reflexivity|]. split; [reflexivity|].
  split; [reflexivity|]. split; [reflexivity|].
  destruct (empty_view c (wfs (world0 t0 off)) eq_refl) as [W V]. split; [split; [exact W | constructor]|]. split; [exact V | discriminate].
Qed.

Lemma finv_nodup x st errs fl : FInv x st errs fl -> nodup_names (wfs (s_w x)).
Proof.
  intros [q [Ew [_ [_ [_ [_ I]]]]]]. rewrite Ew. change (wfs (fw q fl)) with (wfs q).
  destruct st as [created|cl d|cl d]; [destruct I as [_ [[_ Nd] _]] | destruct I as [wr [_ [Nd _]]] | destruct I as [wr [_ [Nd _]]]]; exact Nd.
Qed.

Lemma frun_start t0 off fl recs :
  let '(st, e, fl') := simr_st (c_append c) m (SInit false) fl recs in
  exists x' obs, run (fsys t0 off fl) (OStart c :: List.map OWrite recs) = (x', ObsRes 0 false :: obs)
    /\ FInv x' st e fl' /\ Forall obs_normal obs.
Proof.
  pose proof (frun recs _ _ _ _ (finv_start t0 off fl)) as R.
  destruct (simr_st (c_append c) m (SInit false) fl recs) as [[st e] fl']. destruct R as [x' [obs [R [I O]]]].
  exists x', obs. rewrite run_start, R. auto.
Qed.

End Rot.

(* (1) For every fault oracle fl and every list of records: after  OStart c :: map OWrite recs  from the empty directory
   with the oracle fl, the directory is exactly what simr says - r00000, r00001, ... hold the closed contents in order,
   rCURRENT holds the current content or does not exist, nothing else is there -, the error channel holds exactly the
   errors simr lists (with their codes, in order), the oracle is consumed as simr says, and every log call (and the
   start) returns normally: no panic, no error result. *)
Theorem faults_rotation c m t0 off fl recs :
  numcfg c (CSize m) -> c_cap c = None ->
  let r := run (fsys t0 off fl) (OStart c :: List.map OWrite recs) in
  let '(closed, ocur, errs, rest) := simr (c_append c) m fl recs in
  fs_wf (wfs (s_w (fst r)))
  /\ reader_view_opt c (wfs (s_w (fst r))) closed ocur
  /\ werrs (s_w (fst r)) = errs
  /\ wfaults (s_w (fst r)) = rest
  /\ (forall o, In o (snd r) -> exists rot, o = ObsRes 0 rot).
Proof.
  intros Hcfg Hcap. cbv zeta. unfold simr.
  pose proof (frun_start c m Hcfg Hcap t0 off fl recs) as R.
  destruct (simr_st (c_append c) m (SInit false) fl recs) as [[st e] fl'].
  destruct R as [x' [obs [Rn [I O]]]]. rewrite Rn. cbn [fst snd].
  destruct (finv_final c m Hcap x' st e fl' I) as [W [V [He [Hf _]]]].
  split; [exact W|]. split; [exact V|]. split; [exact He|]. split; [exact Hf|].
  intros o [<-|Ho]; [eexists; reflexivity|]. rewrite Forall_forall in O. exact (O o Ho).
Qed.
Print Assumptions faults_rotation.

(* the stream a reader finds in a directory with that view *)
Definition dir_stream (closed : list bytes) (ocur : option bytes) : bytes :=
  concat closed ++ match ocur with Some d => d | None => [] end.

(* (1)-(3) together, in terms of the run only: the directory after the history reads as the concatenation of a
   subsequence `kept` of the records (nothing duplicated, nothing reordered, nothing else in the files); each missing
   record is announced by one EWrite on the error channel, so the number of missing records is at most the number of
   reported errors *)
Theorem faults_rotation_stream c m t0 off fl recs :
  numcfg c (CSize m) -> c_cap c = None ->
  let x := fst (run (fsys t0 off fl) (OStart c :: List.map OWrite recs)) in
  exists closed ocur kept,
    reader_view_opt c (wfs (s_w x)) closed ocur
    /\ dir_stream closed ocur = concat kept /\ Subseq kept recs
    /\ length recs = length kept + nlost (werrs (s_w x))
    /\ nlost (werrs (s_w x)) <= length (werrs (s_w x)).
Proof.
  intros Hcfg Hcap. cbv zeta.
  pose proof (faults_rotation c m t0 off fl recs Hcfg Hcap) as F. cbv zeta in F. unfold simr in F.
  pose proof (loss_is_reported (c_append c) m recs (SInit false) fl) as L.
  destruct (simr_st (c_append c) m (SInit false) fl recs) as [[st e] fl'].
  destruct F as [_ [V [He _]]]. destruct L as [kept [Hs [Hst [Hl Hle]]]].
  exists (st_closed st), (st_cur st), kept. rewrite He. split; [exact V|]. split; [exact Hst|]. auto.
Qed.
Print Assumptions faults_rotation_stream.

(* (2) in terms of the run, record by record: with t = trace .. the list of log calls (record, its reports, the oracle
   entries its call consumed - they partition the consumed part of the oracle, and the reports are those on the error
   channel), the directory reads as the concatenation of the records that were kept; a record whose log call consumed
   only `false` entries is kept and nothing is reported for it; a record that is missing had a failing call in its own
   log call and was reported with EWrite *)
Theorem faults_rotation_trace c m t0 off fl recs :
  numcfg c (CSize m) -> c_cap c = None ->
  let x := fst (run (fsys t0 off fl) (OStart c :: List.map OWrite recs)) in
  let t := trace (c_append c) m (SInit false) fl recs in
  exists closed ocur,
    reader_view_opt c (wfs (s_w x)) closed ocur
    /\ dir_stream closed ocur = concat (List.map t_kept t)
    /\ List.map t_rec t = recs
    /\ werrs (s_w x) = concat (List.map t_errs t)
    /\ fl = concat (List.map t_used t) ++ wfaults (s_w x)
    /\ (forall e, In e t -> length (t_errs e) = ntrue (t_used e))
    /\ (forall e, In e t -> (forall f, In f (t_used e) -> f = false) -> t_errs e = [] /\ t_kept e = t_rec e)
    /\ (forall e, In e t -> t_kept e <> t_rec e -> In true (t_used e) /\ In EWrite (t_errs e)).
Proof.
  intros Hcfg Hcap. cbv zeta.
  pose proof (faults_rotation c m t0 off fl recs Hcfg Hcap) as Fr. cbv zeta in Fr. unfold simr in Fr.
  pose proof (lost_only_around_failures (c_append c) m fl recs) as L.
  destruct (simr_st (c_append c) m (SInit false) fl recs) as [[st e] fl']. cbv zeta in L.
  destruct Fr as [_ [V [He [Hf _]]]]. destruct L as [H1 [H2 [H3 [H4 [H5 [H6 H7]]]]]].
  exists (st_closed st), (st_cur st). rewrite He, Hf.
  split; [exact V|]. split; [exact H4|]. split; [exact H1|]. split; [exact H3|]. split; [exact H2|]. auto.
Qed.
Print Assumptions faults_rotation_trace.

(* (4) at the level of the run.  When the oracle has been used up by the history (rest = []) and the writer is on
   rCURRENT (which is the case after the first record that follows the last failure: recovery_spec), the state is
   related to the view (closed, current) by Rel, the invariant of the fault-free development: whatever basic
   operations follow (writes, flushes, rotate(), clock ticks), they behave exactly as in a run without failures from
   that directory - the view follows the size rule s_run, and every write reports whether it rotated *)
Theorem recovery_rotation_run c m t0 off fl recs ops :
  numcfg c (CSize m) -> c_cap c = None -> Forall basic_op ops ->
  let x := fst (run (fsys t0 off fl) (OStart c :: List.map OWrite recs)) in
  let '(st, _, rest) := simr_st (c_append c) m (SInit false) fl recs in
  rest = [] -> forall cl d, st = SCur cl d ->
    Rel c (CSize m) x (Some (cl, d))
    /\ Rel c (CSize m) (fst (run x ops)) (s_run m (Some (cl, d)) ops)
    /\ (forall i o b, nth_error ops i = Some o -> (o = OWrite b \/ o = OPlain b) ->
          nth_error (snd (run x ops)) i
          = Some (ObsRes 0 (m <? N.of_nat (length (cur_of (s_run m (Some (cl, d)) (firstn i ops)))))%N)).
Proof.
  intros Hcfg Hcap Hb. cbv zeta.
  pose proof (frun_start c m Hcfg Hcap t0 off fl recs) as R.
  destruct (simr_st (c_append c) m (SInit false) fl recs) as [[st e] fl'].
  destruct R as [x' [obs [Rn [I O]]]]. intros -> cl d ->. rewrite Rn. cbn [fst].
  pose proof (finv_rel c m x' cl d _ I) as Rl.
  split; [exact Rl|].
  pose proof (run_rel c (CSize m) Hcfg ops x' _ Rl Hb) as R2.
  destruct (run_size c m Hcfg ops x' _ Rl Hb) as [E2 O2]. rewrite E2 in R2.
  split; [exact R2|]. intros i o b Hi Hw. exact (O2 i o Hi b Hw).
Qed.
Print Assumptions recovery_rotation_run.

(* ------------------------------------------------------------------ the statement, computed on examples *)
Import String.StringSyntax.
Open Scope string_scope.
Definition fx_cfg (app : bool) (m : N) : config :=
  {| c_spec := {| fbase := bs "app"; fdisc := None; fts := false; fsfx := Some (bs "log") |};
     c_append := app; c_cap := None; c_rot := Some (CSize m, NNumbers, KNever); c_utc := false;
     c_symlink := false; c_bg := false; c_async := false; c_start := None |}.
Lemma fx_numcfg app m : numcfg (fx_cfg app m) (CSize m) /\ c_cap (fx_cfg app m) = None.
Proof. repeat split. Qed.

(* the run: the directory (name, kind, content; sorted by name), the error channel, the rest of the oracle, and
   whether every log call returned normally *)
Definition obs_normalb (o : obs) : bool := match o with ObsRes 0%N _ => true | _ => false end.
Definition fx_run (app : bool) (m : N) (fl : list bool) (recs : list bytes)
  : list (bytes * N * bytes) * list ecode * list bool * bool :=
  let r := run (fsys 0 0 fl) (OStart (fx_cfg app m) :: List.map OWrite recs) in
  (snap_of (fst r), werrs (s_w (fst r)), wfaults (s_w (fst r)), forallb obs_normalb (snd r)).
(* the specification, as a directory *)
Fixpoint number {A} (i : nat) (l : list A) : list (nat * A) := match l with [] => [] | x :: r => (i, x) :: number (S i) r end.
Definition fx_sim (app : bool) (m : N) (fl : list bool) (recs : list bytes)
  : list (bytes * N * bytes) * list ecode * list bool * bool :=
  let '(cl, ocur, e, rest) := simr app m fl recs in
  (List.map (fun p => (rname (fx_cfg app m) (fst p), 0%N, snd p)) (number 0 cl)
   ++ match ocur with Some d => [(cname (fx_cfg app m), 0%N, d)] | None => [] end, e, rest, true).

Definition T := true.
Definition F := false.
Definition recs3 : list bytes := [bs "abcd"; bs "ef"; bs "gh"].
Definition recs5 : list bytes := [bs "abcd"; bs "ef"; bs "gh"; bs "ijkl"; bs "mn"].
Definition r0 := bs "app_r00000.log".
Definition r1 := bs "app_r00001.log".
Definition rC := bs "app_rCURRENT.log".

(* size limit 3, no append: the first log call makes four fallible calls (read_dir, rename, open, write) *)
Example fx_none : fx_run false 3 [] recs3 = ([(r0, 0%N, bs "abcd"); (rC, 0%N, bs "efgh")], [], [], true)
               /\ fx_sim false 3 [] recs3 = fx_run false 3 [] recs3.
Proof. split; vm_compute; reflexivity. Qed.
(* (i) the rename at the rotation before "ef" fails: reported (ELogFile), "ef" goes into the over-full rCURRENT, the next
   record rotates *)
Example fx_rename_fails : fx_run false 3 [F;F;F;F; T] recs3 = ([(r0, 0%N, bs "abcdef"); (rC, 0%N, bs "gh")], [ELogFile], [], true)
               /\ fx_sim false 3 [F;F;F;F; T] recs3 = fx_run false 3 [F;F;F;F; T] recs3.
Proof. split; vm_compute; reflexivity. Qed.
(* ... as long as the rename fails rCURRENT grows beyond the limit, each time reported, nothing lost *)
Example fx_rename_keeps_failing :
  fx_run false 3 [F;F;F;F; T;F; T;F] recs3 = ([(rC, 0%N, bs "abcdefgh")], [ELogFile; ELogFile], [], true)
  /\ fx_sim false 3 [F;F;F;F; T;F; T;F] recs3 = fx_run false 3 [F;F;F;F; T;F; T;F] recs3.
Proof. split; vm_compute; reflexivity. Qed.
(* (ii) the rename succeeds, the creation of the new rCURRENT fails: reported, "ef" is written into the file that is now
   called r00000; there is no rCURRENT *)
Example fx_create_fails :
  fx_run false 3 [F;F;F;F; F;T] (firstn 2 recs3) = ([(r0, 0%N, bs "abcdef")], [ELogFile], [], true)
  /\ fx_sim false 3 [F;F;F;F; F;T] (firstn 2 recs3) = fx_run false 3 [F;F;F;F; F;T] (firstn 2 recs3).
Proof. split; vm_compute; reflexivity. Qed.
(* ... the next record tries again: rCURRENT is not found (tolerated), a new one is created, the numbering goes on
   with r00001 (the index is not advanced twice) *)
Example fx_create_fails_then_recovers :
  fx_run false 3 [F;F;F;F; F;T] recs5 = ([(r0, 0%N, bs "abcdef"); (r1, 0%N, bs "ghijkl"); (rC, 0%N, bs "mn")], [ELogFile], [], true)
  /\ fx_sim false 3 [F;F;F;F; F;T] recs5 = fx_run false 3 [F;F;F;F; F;T] recs5.
Proof. split; vm_compute; reflexivity. Qed.
(* ... and if the creation fails again, the record again goes into the renamed file *)
Example fx_create_fails_twice :
  fx_run false 3 [F;F;F;F; F;T;F; F;T;F] recs3 = ([(r0, 0%N, bs "abcdefgh")], [ELogFile; ELogFile], [], true)
  /\ fx_sim false 3 [F;F;F;F; F;T;F; F;T;F] recs3 = fx_run false 3 [F;F;F;F; F;T;F; F;T;F] recs3.
Proof. split; vm_compute; reflexivity. Qed.
(* (iii) the listing of the initialisation fails: "abcd" is lost and reported (EWrite); the next record initialises again *)
Example fx_listing_fails : fx_run false 3 [T] recs3 = ([(rC, 0%N, bs "efgh")], [EWrite], [], true)
               /\ fx_sim false 3 [T] recs3 = fx_run false 3 [T] recs3.
Proof. split; vm_compute; reflexivity. Qed.
(* the rename of the initialisation fails (first record), then the open of the second initialisation (second record) *)
Example fx_init_fails_twice : fx_run false 3 [F;T; F;F;T] recs3 = ([(rC, 0%N, bs "gh")], [EWrite; EWrite], [], true)
               /\ fx_sim false 3 [F;T; F;F;T] recs3 = fx_run false 3 [F;T; F;F;T] recs3.
Proof. split; vm_compute; reflexivity. Qed.
(* with append the calls are read_dir, open, metadata: when metadata fails the created (empty) rCURRENT stays *)
Example fx_metadata_fails : fx_run true 3 [F;F;T] [bs "abcd"] = ([(rC, 0%N, [])], [EWrite], [], true)
               /\ fx_sim true 3 [F;F;T] [bs "abcd"] = fx_run true 3 [F;F;T] [bs "abcd"]
               /\ fx_run true 3 [F;F;T] recs3 = ([(rC, 0%N, bs "efgh")], [EWrite], [], true)
               /\ fx_sim true 3 [F;F;T] recs3 = fx_run true 3 [F;F;T] recs3.
Proof. repeat split; vm_compute; reflexivity. Qed.
(* (iv) the write fails: the record is lost and reported (EWrite) *)
Example fx_write_fails : fx_run false 3 [F;F;F;T] recs3 = ([(rC, 0%N, bs "efgh")], [EWrite], [], true)
               /\ fx_sim false 3 [F;F;F;T] recs3 = fx_run false 3 [F;F;F;T] recs3.
Proof. split; vm_compute; reflexivity. Qed.
(* one log call, two reports: the rotation fails (ELogFile) and then the write fails (EWrite): one record lost *)
Example fx_two_reports : fx_run false 3 [F;F;F;F; T;T] recs3 = ([(r0, 0%N, bs "abcd"); (rC, 0%N, bs "gh")], [ELogFile; EWrite], [], true)
               /\ fx_sim false 3 [F;F;F;F; T;T] recs3 = fx_run false 3 [F;F;F;F; T;T] recs3.
Proof. split; vm_compute; reflexivity. Qed.

Fixpoint leqb {A} (e : A -> A -> bool) (a b : list A) : bool :=
  match a, b with [], [] => true | x :: r, y :: s => e x y && leqb e r s | _, _ => false end.
Definition ec_eqb (a b : ecode) : bool :=
  match a, b with
  | EWrite, EWrite | EFlush, EFlush | EFormat, EFormat | ELogFile, ELogFile | ESymlink, ESymlink | EPoison, EPoison
  | EWriterSpec, EWriterSpec => true
  | _, _ => false end.
Definition ent_eqb (a b : bytes * N * bytes) : bool :=
  beq (fst (fst a)) (fst (fst b)) && N.eqb (snd (fst a)) (snd (fst b)) && beq (snd a) (snd b).
Definition agree (app : bool) (m : N) (recs : list bytes) (fl : list bool) : bool :=
  let '(d1, e1, f1, ok1) := fx_run app m fl recs in
  let '(d2, e2, f2, ok2) := fx_sim app m fl recs in
  leqb ent_eqb d1 d2 && leqb ec_eqb e1 e2 && leqb Bool.eqb f1 f2 && Bool.eqb ok1 ok2.
Fixpoint all_lists (n : nat) : list (list bool) :=
  match n with O => [[]] | S k => let r := all_lists k in [] :: List.map (cons true) r ++ List.map (cons false) r end.

Lemma leqb_refl {A} (eq : A -> A -> bool) : (forall a, eq a a = true) -> forall l, leqb eq l l = true.
Proof. intros H. induction l as [|a l IH]; cbn [leqb]; [reflexivity|]. rewrite H, IH. reflexivity. Qed.
Lemma ent_eqb_refl a : ent_eqb a a = true.
Proof. unfold ent_eqb. rewrite !beq_refl, N.eqb_refl. reflexivity. Qed.
Lemma ec_eqb_refl a : ec_eqb a a = true.
Proof. destruct a; reflexivity. Qed.
Lemma obs_normalb_all obs : (forall o, In o obs -> exists rot, o = ObsRes 0 rot) -> forallb obs_normalb obs = true.
Proof. intros H. apply forallb_forall. intros o Ho. destruct (H o Ho) as [rot ->]. reflexivity. Qed.

Lemma number_nth {A} (d : A) l : forall k i, i < length l -> In (k + i, nth i l d) (number k l).
Proof.
  induction l as [|x r IH]; intros k i Hi; cbn [length] in Hi; [lia|]. cbn [number]. destruct i as [|i].
  - left. rewrite Nat.add_0_r. reflexivity.
  - right. replace (k + S i) with (S k + i) by lia. apply IH. lia.
Qed.
Lemma number_in {A} (d : A) l : forall k p, In p (number k l) -> exists i, i < length l /\ p = (k + i, nth i l d).
Proof.
  induction l as [|x r IH]; intros k p; cbn [number]; [intros []|]. intros [<-|H].
  - exists 0. cbn. rewrite Nat.add_0_r. split; [lia | reflexivity].
  - destruct (IH _ _ H) as [i [Hi ->]]. exists (S i). cbn [length nth]. split; [lia|]. f_equal. lia.
Qed.

Definition view_files (c : config) (closed : list bytes) (ocur : option bytes) : list (bytes * N * bytes) :=
  List.map (fun p => (rname c (fst p), 0%N, snd p)) (number 0 closed)
  ++ match ocur with Some d => [(cname c, 0%N, d)] | None => [] end.

(* a directory with that view, no name entered twice, is read as the list of these files when their names are in
   ascending byte order (r<i> are, while the numbers have five digits, and rCURRENT comes after them) *)
Lemma view_snap c f closed ocur : reader_view_opt c f closed ocur -> nodup_names f ->
  SnapFacts.ascending (List.map SnapFacts.ent_name (view_files c closed ocur)) = true -> TsReader.snap_list f = view_files c closed ocur.
Proof.
  intros [Hcl [Hcu Hon]] Nd Asc. apply SnapFacts.snap_list_exact; [exact Nd | exact Asc | |].
  - intros a Ia. apply in_app_or in Ia. destruct Ia as [Ia|Ia].
    + apply in_map_iff in Ia. destruct Ia as [p [<- Ip]]. destruct (number_in [] closed 0 p Ip) as [i [Hi ->]].
      cbn [fst snd plus SnapFacts.ent_name]. destruct (Hcl i Hi) as [j [Lj [Pj Cj]]].
      split; [apply dir_names_lookup; eauto|]. rewrite (SnapFacts.snap_entry_plain f _ j Lj Pj), Cj. reflexivity.
    + destruct ocur as [d|]; [|destruct Ia]. destruct Ia as [<-|[]]. destruct Hcu as [j [Lj [Pj Cj]]]. cbn [SnapFacts.ent_name fst].
      split; [apply dir_names_lookup; eauto|]. rewrite (SnapFacts.snap_entry_plain f _ j Lj Pj), Cj. reflexivity.
  - intros n j Lj. unfold view_files. rewrite map_app. apply in_or_app. destruct (Hon n j Lj) as [->|[i [Hi ->]]].
    + right. destruct ocur as [d|]; [left; reflexivity | congruence].
    + left. rewrite map_map. apply in_map_iff. exists (i, nth i closed []). split; [reflexivity | exact (number_nth [] closed 0 i Hi)].
Qed.

Lemma faults_rotation_nodup c m t0 off fl recs : numcfg c (CSize m) -> c_cap c = None ->
  nodup_names (wfs (s_w (fst (run (fsys t0 off fl) (OStart c :: List.map OWrite recs))))).
Proof.
  intros Hcfg Hcap. pose proof (frun_start c m Hcfg Hcap t0 off fl recs) as R.
  destruct (simr_st (c_append c) m (SInit false) fl recs) as [[st e] fl']. destruct R as [x' [obs [Rn [I _]]]].
  rewrite Rn. eapply finv_nodup. exact I.
Qed.

(* the names of the specification's directory are in ascending order: this concerns the specification alone *)
Definition fx_sorted (app : bool) (m : N) (recs : list bytes) (fl : list bool) : bool :=
  SnapFacts.ascending (List.map SnapFacts.ent_name (fst (fst (fst (fx_sim app m fl recs))))).

Theorem agree_holds app m recs fl : fx_sorted app m recs fl = true -> agree app m recs fl = true.
Proof.
  intros Hs. destruct (fx_numcfg app m) as [Hcfg Hcap].
  pose proof (faults_rotation (fx_cfg app m) m 0 0 fl recs Hcfg Hcap) as Fr.
  pose proof (faults_rotation_nodup (fx_cfg app m) m 0 0 fl recs Hcfg Hcap) as Nd.
  cbv zeta in Fr. change (c_append (fx_cfg app m)) with app in Fr.
  unfold fx_sorted, fx_sim in Hs. unfold agree, fx_run, fx_sim.
  destruct (simr app m fl recs) as [[[cl ocur] e'] rest]. cbn [fst] in Hs.
  destruct Fr as [_ [V [He [Hf O]]]].
  change (snap_of (fst (run (fsys 0 0 fl) (OStart (fx_cfg app m) :: List.map OWrite recs))))
    with (TsReader.snap_list (wfs (s_w (fst (run (fsys 0 0 fl) (OStart (fx_cfg app m) :: List.map OWrite recs)))))).
  rewrite (view_snap _ _ _ _ V Nd Hs), He, Hf, (obs_normalb_all _ O).
  rewrite (leqb_refl ent_eqb ent_eqb_refl), (leqb_refl ec_eqb ec_eqb_refl), (leqb_refl Bool.eqb Bool.eqb_reflx). reflexivity.
Qed.

Lemma agree_all app m recs ls : forallb (fx_sorted app m recs) ls = true -> forallb (agree app m recs) ls = true.
Proof. intros Hs. rewrite forallb_forall in *. intros fl Ifl. exact (agree_holds app m recs fl (Hs fl Ifl)). Qed.

(* run and specification agree on ALL fault oracles up to length 9 (1023 oracles), for three settings; empty records
   included (they need no write call).  What is evaluated is the order of the specification's names. *)
Example fx_agree_all :
  forallb (agree false 3 recs5) (all_lists 9) = true
  /\ forallb (agree true 3 recs5) (all_lists 9) = true
  /\ forallb (agree false 1 [bs "abcd"; bs ""; bs "efgh"; bs ""; bs "i"]) (all_lists 9) = true.
Proof. repeat apply conj; apply agree_all; vm_compute; reflexivity. Qed.
