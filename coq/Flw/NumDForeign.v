(* Files that are not members of the logger's file family are ignored, NumbersDirect naming (r00000, r00001, ...; no
   rCURRENT): a run in a directory that holds foreign files is, step by step, the embedding (ForeignFs.embed) of the
   run in the empty directory.

   - foreign name: the family test of the model rejects it (numd_member c n = false): it is not listed as a numbered
     file, neither plain nor as an archive.  Unlike with Numbers naming the name of the rCURRENT file is foreign, too:
     a writer with NumbersDirect naming never touches it (foreign_instance_dir_d).
   - numbersdirect_foreign_ignored: every criterion, every history OStart c :: ops ++ [OStop] of basic operations
     (snapshots included), with or without append, any buffer capacity.
   - numbersdirect_stream_foreign: numbersdirect_stream carries over.
   The embedding lemmas (sections NamesD, CfgDK) hold for every world, faults and kills included. *)
Require Import FL.Flw.WorldPar.
Require Import FL.Base.Bytes FL.Base.BytesFacts FL.Base.PathName FL.Fs.Fs FL.Fs.FsFacts FL.Time.Civil FL.Time.TsFormat
  FL.Names.FileSpec FL.Names.NamesFacts FL.Names.SortFacts FL.Names.FamilyFacts
  FL.Flw.Model FL.Flw.ModelFacts FL.Flw.NumFs FL.Flw.NumInv FL.Flw.Run FL.Flw.RunFacts FL.Flw.NumRun FL.Flw.NumTheorems
  FL.Flw.NumListing FL.Flw.NumDInv FL.Flw.NumDRun FL.Flw.NumDTheorems
  FL.Flw.ForeignFs FL.Flw.ForeignSort FL.Flw.ForeignModel FL.Flw.NumForeign FL.Oracles.O_Flw.
From Coq Require Import ZifyN ZifyNat ZifyBool.
Open Scope nat_scope.

(* the family test of the model for NumbersDirect naming: the name is listed as a numbered file, plain or compressed *)
Definition numd_member (c : config) (n : bytes) : bool :=
  qf 0 (fsfx (c_spec c)) (fixed0 c) IFNum (fsfx (c_spec c)) n
  || qf 0 (fsfx (c_spec c)) (fixed0 c) IFNum (Some gz_sfx) n.

Lemma numd_member_num c n : num_member c n = numd_member c n || beq n (cname c).
Proof. reflexivity. Qed.

Section NamesD.
Variable fn : list (bytes * nat).
Variable fi : list file.
Variable c : config.
Hypothesis Hts : fts (c_spec c) = false.
Hypothesis Hforeign : forall n, In n (fnames fn) -> numd_member c n = false.
Notation fnm := (fnames fn).
Notation embw := (embedw fn fi).

Lemma foreign_plain_d off n : In n fnm -> qf off (fsfx (c_spec c)) (fixed0 c) IFNum (fsfx (c_spec c)) n = false.
Proof. intros H. apply Hforeign in H. unfold numd_member in H. rewrite qf_num_off. rewrite orb_false_iff in H. apply H. Qed.
Lemma foreign_gz_d off n : In n fnm -> qf off (fsfx (c_spec c)) (fixed0 c) IFNum (Some gz_sfx) n = false.
Proof. intros H. apply Hforeign in H. unfold numd_member in H. rewrite qf_num_off. rewrite orb_false_iff in H. apply H. Qed.
Lemma rname_own_d idx : ~ In (nm c (number_infix idx)) fnm.
Proof.
  intros H. pose proof (foreign_plain_d 0%Z _ H) as Q. pose proof (qf_rname 0%Z c (N.to_nat idx)) as Q'.
  unfold rname in Q'. rewrite N2Nat.id in Q'. congruence.
Qed.
Lemma name_own_d w idx : ~ In (name_of c w (Some (number_infix idx))) fnm.
Proof. rewrite name_of_fixed by exact Hts. apply rname_own_d. Qed.

Lemma get_highest_index_embed_d off f :
  get_highest_index off (c_spec c) (fixed0 c) (embed fn fi f) = get_highest_index off (c_spec c) (fixed0 c) f.
Proof. unfold get_highest_index. rewrite (list_log_gz_embed_flt fn fi c IFNum foreign_plain_d foreign_gz_d). reflexivity. Qed.

(* the naming step of the initialisation: the listing, and the look whether the newest file is still there *)
Lemma init_naming_embed_d w : init_naming c (embw w) NNumbersDirect = lw fn fi (init_naming c w NNumbersDirect).
Proof.
  unfold init_naming.
  rewrite (with_listing_embed fn fi w
             (fun w' => get_highest_index (woff w') (c_spec c) (fixed_of c w') (wfs w'))
             (fun w' => get_highest_index (woff w') (c_spec c) (fixed_of c w') (wfs w'))).
  2:{ intros w'. rewrite !(fixed_of_embed c Hts). change (wfs (embw w')) with (embed fn fi (wfs w')).
      change (woff (embw w')) with (woff w'). apply get_highest_index_embed_d. }
  destruct (with_listing w (fun w' => get_highest_index (woff w') (c_spec c) (fixed_of c w') (wfs w'))) as [r w1].
  destruct r as [o| |]; cbn [lw fst snd bind]; [|reflexivity|reflexivity].
  destruct o as [i|]; [|reflexivity]. rewrite name_of_embed. change (wfs (embw w1)) with (embed fn fi (wfs w1)).
  rewrite (lookup_is_some_embed fn fi) by apply name_own_d. reflexivity.
Qed.

Lemma init_naming_d_shape w ns infix w1 :
  init_naming c w NNumbersDirect = (Ok (ns, infix), w1) -> exists idx, ns = NSNumD idx /\ infix = number_infix idx.
Proof.
  unfold init_naming.
  destruct (with_listing w (fun w' => get_highest_index (woff w') (c_spec c) (fixed_of c w') (wfs w'))) as [[o| |] w0];
    cbn [bind]; try discriminate.
  intros E. injection E as <- <- _. eexists. split; reflexivity.
Qed.
End NamesD.

(* NumbersDirect naming with cleanup strategy kc, no start-time part in the names, no symlink; with a cleanup: the suffix
   is not "gz" *)
Section CfgDK.
Variable fn : list (bytes * nat).
Variable fi : list file.
Variable c : config.
Variable crit : criterion.
Variable kc : cleanup.
Hypothesis Hrot : c_rot c = Some (crit, NNumbersDirect, kc).
Hypothesis Hts : fts (c_spec c) = false.
Hypothesis Hlink : c_symlink c = false.
Hypothesis Hk : kc = KNever \/ fsfx (c_spec c) <> Some gz_sfx.
(* no entry of the stock is a member of the family of c *)
Hypothesis Hforeign : forall n, In n (fnames fn) -> numd_member c n = false.
Notation fnm := (fnames fn).
Notation embw := (embedw fn fi).

Lemma cleanup_impl_embed_dk w cur : cleanup_impl c (embw w) kc IFNum cur = lw fn fi (cleanup_impl c w kc IFNum cur).
Proof.
  exact (cleanup_impl_embed_flt fn fi c IFNum Hts (foreign_plain_d fn c Hforeign) (foreign_gz_d fn c Hforeign) w kc cur Hk).
Qed.

Lemma initialize_embed_dk w :
  initialize c (embw w) = (shres fi (fst (initialize c w)), embw (snd (initialize c w))).
Proof.
  apply (initialize_embed_gen fn fi c crit NNumbersDirect kc w Hlink Hrot).
  - apply init_naming_embed_d; assumption.
  - intros ns infix w1 E. destruct (init_naming_d_shape c w ns infix w1 E) as [idx [-> ->]].
    split; [apply (name_own_d fn c Hts Hforeign)|]. intros w' cur. apply cleanup_impl_embed_dk.
Qed.

(* the states of a writer with NumbersDirect naming and the cleanup strategy kc *)
Definition good_inner_dk : inner -> Prop := rot_kind (fun ns => exists idx, ns = NSNumD idx) (fun k _ => k = kc).

Lemma initialize_good_dk w i w' : initialize c w = (Ok i, w') -> good_inner_dk i.
Proof.
  apply (initialize_kind _ _ c crit NNumbersDirect kc w i w' Hrot); [|reflexivity].
  intros ns infix w1 E. destruct (init_naming_d_shape c w ns infix w1 E) as [idx [-> _]]. eauto.
Qed.

Lemma mount_next_good_dk w st force r w' st' :
  good_inner_dk st -> mount_next c w st force = (r, w', st') -> good_inner_dk st'.
Proof.
  apply mount_next_kind. intros w0 ns r1 w1 ns1 [idx ->]. cbn [next_naming]. intros H. injection H as _ _ <-. eauto.
Qed.

Lemma mount_next_embed_dk w st force : good_inner_dk st ->
  mount_next c (embw w) (shin fi st) force = lm fn fi (mount_next c w st force).
Proof.
  intros G. apply (mount_next_embed_gen fn fi c w st force Hlink). intros rs wr p ->.
  destruct G as [[idx En] Ek]. rewrite En, Ek. cbn [next_naming]. split; [reflexivity|].
  intros infix w1 ns1 E. injection E as <- <- <-. split; [apply (name_own_d fn c Hts Hforeign)|].
  intros w' cur. apply cleanup_impl_embed_dk.
Qed.

Definition good_flw_dk (s : flw) : Prop := f_cfg s = c /\ f_poisoned s = false /\ good_inner_dk (f_inner s).

Lemma write_buffer_embed_dk s w b : good_flw_dk s ->
  write_buffer (embeds fi s) (embw w) b = lwb fn fi (write_buffer s w b).
Proof.
  intros [Ec [Hp G]]. apply (write_buffer_embed_pt fn fi c); [exact Ec | intros _; apply initialize_embed_dk |].
  intros w0 st0 H. apply mount_next_embed_dk. destruct (f_inner s) as [|o wr path] eqn:Ei.
  - destruct (initialize c w) as [[i| |] w'] eqn:E; try discriminate. injection H as <- <-. eapply initialize_good_dk; eassumption.
  - injection H as <- <-. exact G.
Qed.
End CfgDK.

(* without cleanup *)
Section CfgD.
Variable fn : list (bytes * nat).
Variable fi : list file.
Variable c : config.
Variable crit : criterion.
Hypothesis Hrot : c_rot c = Some (crit, NNumbersDirect, KNever).
Hypothesis Hts : fts (c_spec c) = false.
Hypothesis Hlink : c_symlink c = false.
Hypothesis Hforeign : forall n, In n (fnames fn) -> numd_member c n = false.
Notation fnm := (fnames fn).
Notation embw := (embedw fn fi).

(* the states of a writer with NumbersDirect naming without cleanup *)
Definition good_inner_d (st : inner) : Prop :=
  match st with
  | Active (Some rs) _ _ => (exists idx, rs_naming rs = NSNumD idx) /\ rs_cleanup rs = KNever
  | _ => True
  end.

Lemma mount_next_embed_d w st force : good_inner_d st ->
  mount_next c (embw w) (shin fi st) force = lm fn fi (mount_next c w st force).
Proof. exact (mount_next_embed_dk fn fi c KNever Hts Hlink (or_introl eq_refl) Hforeign w st force). Qed.

Lemma mount_next_good_d w st force r w' st' : good_inner_d st -> mount_next c w st force = (r, w', st') -> good_inner_d st'.
Proof. exact (mount_next_good_dk c KNever w st force r w' st'). Qed.

Definition good_flw_d (s : flw) : Prop := f_cfg s = c /\ f_poisoned s = false /\ good_inner_d (f_inner s).

Lemma write_buffer_embed_d s w b : good_flw_d s ->
  write_buffer (embeds fi s) (embw w) b = lwb fn fi (write_buffer s w b).
Proof. exact (write_buffer_embed_dk fn fi c crit KNever Hrot Hts Hlink (or_introl eq_refl) Hforeign s w b). Qed.
End CfgD.

(* ------------------------------------------------------------------ the states of the run in the clean directory *)
Definition good_sys_d (c : config) (x : sys) : Prop := forall s, s_flw x = Some s -> good_flw_d c s.

Lemma reld_good c crit x a : RelD c crit x a -> good_sys_d c x.
Proof.
  intros [_ [_ R]] s Es. destruct a as [[closed cur]|].
  - destruct R as [wr [roll [E _]]]. rewrite E in Es. injection Es as <-. repeat split. cbn. eauto.
  - destruct R as [E _]. rewrite E in Es. injection Es as <-. repeat split.
Qed.

Lemma reld_fam fn c crit x a : (forall n, In n (fnames fn) -> numd_member c n = false) ->
  RelD c crit x a -> fam_g fn (good_sys_d c) x.
Proof.
  intros Hforeign R. split; [eapply reld_good; exact R|]. destruct R as [_ [_ R]].
  intros n Hn. destruct a as [[closed cur]|].
  - destruct R as [wr [roll [_ [I _]]]]. apply dir_names_lookup in Hn. destruct Hn as [j Hj].
    destruct (nd_only _ _ _ _ I n j Hj) as [i [_ ->]]. apply (rname_own_d fn c Hforeign).
  - destruct R as [_ [_ [E _]]]. unfold dir_names in Hn. rewrite E in Hn. destruct Hn.
Qed.

(* ------------------------------------------------------------------ the theorem *)
(* The foreign-name condition: the family test of the model (numd_member) rejects the name - it is not listed as a
   numbered file, neither plain nor compressed.  The conclusion is NumForeign.foreign_ignored c t0 off foreign ops,
   unfolded. *)
Theorem numbersdirect_foreign_ignored c crit t0 off foreign ops :
  numdcfg c crit -> Forall basic_op ops ->
  NoDup (List.map fst foreign) ->
  (forall n, In n (List.map fst foreign) -> numd_member c n = false) ->
  let ops' := OStart c :: ops ++ [OStop] in
  let rf := run (sys0f t0 off foreign) ops' in
  let r0 := run (sys0 t0 off) ops' in
  List.map (strip_obs (List.map fst foreign)) (snd rf) = snd r0
  /\ (Forall (fun o => o <> OSnap) ops -> snd rf = snd r0)
  /\ (forall n d, In (n, d) foreign -> file_of (wfs (s_w (fst rf))) n = Some (plain_file t0 d))
  /\ (forall n, ~ In n (List.map fst foreign) -> file_of (wfs (s_w (fst rf))) n = file_of (wfs (s_w (fst r0))) n)
  /\ (forall n, In n (List.map fst foreign) -> file_of (wfs (s_w (fst r0))) n = None)
  /\ fst rf = embedx (names (fs0f t0 foreign)) (inodes (fs0f t0 foreign)) (fst r0).
Proof.
  intros Hcfg Hb ND Hfor. pose proof Hcfg as [Hrot [Hts [Hlink Hasync]]].
  pose proof (fs0f_names t0 foreign ND) as Hd.
  assert (Hforeign : forall n, In n (fnames (names (fs0f t0 foreign))) -> numd_member c n = false) by (rewrite Hd; exact Hfor).
  apply (foreign_ignored_g c (good_sys_d c) t0 off foreign ops Hts Hasync).
  - intros x s G Es. destruct (G s Es) as [Ec [Hp _]]. split; assumption.
  - intros x s b G Es. apply (write_buffer_embed_d _ _ c crit Hrot Hts Hlink Hforeign). exact (G s Es).
  - intros x s G Es. apply (mount_next_embed_d _ _ c Hts Hlink Hforeign). destruct (G s Es) as [_ [_ Gi]]. exact Gi.
  - exact Hb.
  - exact ND.
  - intros i. eapply reld_fam; [exact Hforeign|].
    apply (run_rel_d c crit Hcfg (firstn i ops) _ None (start_rel_d c crit t0 off)). apply Forall_firstn'. exact Hb.
  - intros n Hn. rewrite <- Hd in Hn.
    destruct (run_view_d c crit t0 off ops Hcfg Hb) as [x0 [ob0 [_ [_ [_ V]]]]].
    destruct (lookup (wfs (s_w (fst (run (sys0 t0 off) (OStart c :: ops ++ [OStop]))))) n) as [j|] eqn:Ej; [exfalso|reflexivity].
    destruct (V n j Ej) as [i [_ ->]]. exact (rname_own_d _ c Hforeign _ Hn).
Qed.
Print Assumptions numbersdirect_foreign_ignored.

(* ------------------------------------------------------------------ the stream of records *)
Lemma memberd_rname c i : numd_member c (rname c i) = true.
Proof. unfold numd_member. rewrite qf_rname. reflexivity. Qed.

(* the family files of a directory that may hold other files, too: r00000, r00001, .. hold `files`, and no other
   name outside the foreign ones exists *)
Definition direct_view_family (c : config) (fnm : list bytes) (f : fs) (files : list bytes) : Prop :=
  (forall i, i < length files ->
     exists fl, file_of f (rname c i) = Some fl /\ plain fl /\ fdata fl = nth i files [])
  /\ (forall n, ~ In n fnm -> file_of f n <> None -> exists i, i < length files /\ n = rname c i).

(* numbersdirect_stream carries over: with foreign files in the directory the family files still hold, in their order,
   exactly the bytes written *)
Theorem numbersdirect_stream_foreign c crit t0 off foreign ops :
  numdcfg c crit -> Forall basic_op ops ->
  NoDup (List.map fst foreign) ->
  (forall n, In n (List.map fst foreign) -> numd_member c n = false) ->
  exists files,
    direct_view_family c (List.map fst foreign)
      (wfs (s_w (fst (run (sys0f t0 off foreign) (OStart c :: ops ++ [OStop]))))) files
    /\ concat files = written ops.
Proof.
  intros Hcfg Hb ND Hfor.
  destruct (numbersdirect_foreign_ignored c crit t0 off foreign ops Hcfg Hb ND Hfor) as [_ [_ [_ [H3 _]]]].
  destruct (numbersdirect_stream c crit t0 off ops Hcfg Hb) as [files [[Hcl Hon] Hc]].
  exists files. split; [|exact Hc].
  set (ff := wfs (s_w (fst (run (sys0f t0 off foreign) (OStart c :: ops ++ [OStop]))))) in *.
  set (f0 := wfs (s_w (fst (run (sys0 t0 off) (OStart c :: ops ++ [OStop]))))) in *.
  assert (Hrn : forall i, ~ In (rname c i) (List.map fst foreign)).
  { intros i Hi. apply Hfor in Hi. rewrite memberd_rname in Hi. discriminate. }
  split.
  - intros i Hi. destruct (Hcl i Hi) as [j [Lj PC]]. exact (own_file _ ff f0 H3 _ j _ (Hrn i) Lj PC).
  - intros n Hn Hex. destruct (own_exists _ ff f0 H3 n Hn Hex) as [j Lj]. exact (Hon n j Lj).
Qed.
Print Assumptions numbersdirect_stream_foreign.

(* ------------------------------------------------------------------ which names are foreign *)
(* a member has the shape  <fixed>_ r <one or more digits> <rest>  (the rest: restart part, suffix, ".gz") *)
Theorem numd_member_shape c n : numd_member c n = true ->
  exists ds y, ds <> [] /\ all_digits ds = true /\ n = under (fixed0 c) ++ r_char :: ds ++ y.
Proof.
  unfold numd_member. intros H. apply orb_true_iff in H. destruct H as [H|H]; eapply qf_num_shape; exact H.
Qed.

Corollary foreign_no_prefix_d c n : is_prefix (fixed0 c) n = false -> numd_member c n = false.
Proof.
  intros Hp. destruct (numd_member c n) eqn:E; [|reflexivity]. exfalso.
  apply numd_member_shape in E. destruct E as [ds [y [_ [_ ->]]]].
  rewrite is_prefix_under in Hp. discriminate.
Qed.

(* ------------------------------------------------------------------ examples *)
Import String.StringSyntax.
Open Scope string_scope.
Definition exdf_c : config :=
  {| c_spec := {| fbase := bs "a"; fdisc := None; fts := false; fsfx := Some (bs "log") |};
     c_append := true; c_cap := Some 3%nat; c_rot := Some (CSize 3, NNumbersDirect, KNever); c_utc := false;
     c_symlink := false; c_bg := false; c_async := false; c_start := None |}.

(* the near misses of NumForeign.ex_foreign (among them the names that the number filter accepted before its repair: a
   letter or a word behind the number, a time-stamp infix), and the rCURRENT file *)
Definition exdf_foreign : list (bytes * bytes) :=
  [ (bs "a_r00001.log.bak", bs "w"); (bs "a_rx.log", bs "x"); (bs "b.log", bs "y"); (bs "a_r00001.txt", bs "z");
    (bs "ax_r00001.log", bs "v"); (bs "a_r00001", bs "t"); (bs "a_rCURRENT.log.gz", bs "s");
    (bs "a.log", bs "q"); (bs "a_rCURRENT.log", bs "p");
    (bs "a_r1x.log", bs "1"); (bs "a_r1backup.log", bs "2"); (bs "a_r00001x.log", bs "3");
    (bs "a_r2024-02-29_23-59-58.log", bs "4"); (bs "a_r7x.log", bs "5") ].

Example foreign_hypotheses_d :
  numdcfg exdf_c (CSize 3) /\ Forall basic_op ex_ops /\ NoDup (List.map fst exdf_foreign)
  /\ (forall n, In n (List.map fst exdf_foreign) -> numd_member exdf_c n = false).
Proof.
  split; [repeat split|]. split; [repeat constructor|]. split.
  - apply nodupb_sound. vm_compute. reflexivity.
  - apply forallb_false. vm_compute. reflexivity.
Qed.

(* the theorem applied *)
Example foreign_instance_d :
  List.map (strip_obs (List.map fst exdf_foreign)) (snd (run (sys0f 0 0 exdf_foreign) (OStart exdf_c :: ex_ops ++ [OStop])))
  = snd (run (sys0 0 0) (OStart exdf_c :: ex_ops ++ [OStop])).
Proof.
  destruct foreign_hypotheses_d as [H1 [H2 [H3 H4]]].
  exact (proj1 (numbersdirect_foreign_ignored exdf_c (CSize 3) 0 0 exdf_foreign ex_ops H1 H2 H3 H4)).
Qed.

(* ... and computed: the directory after the run *)
Example foreign_instance_dir_d :
  ex_snap (fst (run (sys0f 0 0 exdf_foreign) (OStart exdf_c :: ex_ops ++ [OStop])))
  = [ (bs "a.log", 0%N, bs "q");
      (bs "a_r00000.log", 0%N, bs "abcd");
      (bs "a_r00001", 0%N, bs "t");
      (bs "a_r00001.log", 0%N, bs "ef");
      (bs "a_r00001.log.bak", 0%N, bs "w");
      (bs "a_r00001.txt", 0%N, bs "z");
      (bs "a_r00001x.log", 0%N, bs "3");
      (bs "a_r00002.log", 0%N, bs "ghij");
      (bs "a_r00003.log", 0%N, bs "k");
      (bs "a_r1backup.log", 0%N, bs "2");
      (bs "a_r1x.log", 0%N, bs "1");
      (bs "a_r2024-02-29_23-59-58.log", 0%N, bs "4");
      (bs "a_r7x.log", 0%N, bs "5");
      (bs "a_rCURRENT.log", 0%N, bs "p");
      (bs "a_rCURRENT.log.gz", 0%N, bs "s");
      (bs "a_rx.log", 0%N, bs "x");
      (bs "ax_r00001.log", 0%N, bs "v");
      (bs "b.log", 0%N, bs "y") ]
  /\ ex_snap (fst (run (sys0 0 0) (OStart exdf_c :: ex_ops ++ [OStop])))
  = [ (bs "a_r00000.log", 0%N, bs "abcd"); (bs "a_r00001.log", 0%N, bs "ef"); (bs "a_r00002.log", 0%N, bs "ghij");
      (bs "a_r00003.log", 0%N, bs "k") ].
Proof. vm_compute. split; reflexivity. Qed.

(* BEFORE THE REPAIR of the number filter the family test was wider than "r and a number" here, too: "a_r7x.log" was
   accepted by the number filter; it could not be read as a number and counted as index 0: a writer that found it started with r00001.
   NOW such a name is foreign: numd_member rejects it, the run with the file in the directory starts with r00000 as the run
   in the empty directory does, the file stays what it was. *)
Example near_miss_not_member_d :
  numd_member exdf_c (bs "a_r7x.log") = false
  /\ numd_member exdf_c (bs "a_r1x.log") = false
  /\ numd_member exdf_c (bs "a_r1backup.log") = false
  /\ numd_member exdf_c (bs "a_r00001x.log") = false
  /\ numd_member exdf_c (bs "a_r2024-02-29_23-59-58.log") = false
  /\ ex_snap (fst (run (sys0f 0 0 [(bs "a_r7x.log", bs "w")]) (OStart exdf_c :: ex_ops ++ [OStop])))
     = [ (bs "a_r00000.log", 0%N, bs "abcd"); (bs "a_r00001.log", 0%N, bs "ef"); (bs "a_r00002.log", 0%N, bs "ghij");
         (bs "a_r00003.log", 0%N, bs "k"); (bs "a_r7x.log", 0%N, bs "w") ]
  /\ List.map (strip_obs [bs "a_r7x.log"]) (snd (run (sys0f 0 0 [(bs "a_r7x.log", bs "w")]) (OStart exdf_c :: ex_ops ++ [OStop])))
     = snd (run (sys0 0 0) (OStart exdf_c :: ex_ops ++ [OStop])).
Proof. vm_compute. repeat split; reflexivity. Qed.

(* still "not foreign although this writer did not write it", legitimately: names that follow the pattern - a number of
   any length ("a_r7.log": one digit, which the old filter rejected for being shorter than three bytes).  It counts as
   index 7; the writer (with append) looks for a_r00007.log, does not find it and goes on with r00008. *)
Example short_number_is_member_d :
  numd_member exdf_c (bs "a_r7.log") = true
  /\ numd_member exdf_c (bs "a_r7.log.gz") = true
  /\ ex_snap (fst (run (sys0f 0 0 [(bs "a_r7.log", bs "w")]) (OStart exdf_c :: ex_ops ++ [OStop])))
     = [ (bs "a_r00008.log", 0%N, bs "abcd"); (bs "a_r00009.log", 0%N, bs "ef"); (bs "a_r00010.log", 0%N, bs "ghij");
         (bs "a_r00011.log", 0%N, bs "k"); (bs "a_r7.log", 0%N, bs "w") ].
Proof. vm_compute. repeat split; reflexivity. Qed.

(* the stream theorem applied: the family files hold the bytes written *)
Example stream_instance_d :
  exists files,
    direct_view_family exdf_c (List.map fst exdf_foreign)
      (wfs (s_w (fst (run (sys0f 0 0 exdf_foreign) (OStart exdf_c :: ex_ops ++ [OStop]))))) files
    /\ concat files = bs "abcdefghijk".
Proof.
  destruct foreign_hypotheses_d as [H1 [H2 [H3 H4]]].
  exact (numbersdirect_stream_foreign exdf_c (CSize 3) 0 0 exdf_foreign ex_ops H1 H2 H3 H4).
Qed.
