(* Timestamps naming (rCURRENT + r<time stamp>[.restart-NNNN]) over several runs: the running writer under the
   invariant extended by the birth second of the current file (TsInvB of TsInv.v), and what a NEW writer makes of a
   directory that earlier writers left behind (initialize: without append the current file found is closed under the
   collision-free infix of its birth second, with append it is continued and the naming state takes its birth second). *)
Require Import FL.Base.Bytes FL.Base.BytesFacts FL.Base.PathName FL.Fs.Fs FL.Fs.FsFacts FL.Time.Civil FL.Time.TsFormat
  FL.Names.FileSpec FL.Names.NamesFacts FL.Names.SortFacts FL.Flw.Model FL.Flw.ModelFacts FL.Flw.NumFs FL.Flw.NumInv FL.Flw.Run
  FL.Flw.RunFacts FL.Flw.QuietFacts FL.Flw.NumRun FL.Oracles.O_Flw FL.Flw.NumTheorems FL.Flw.NumListing FL.Flw.NumRestart
  FL.Flw.TsCal FL.Flw.TsTime FL.Flw.TsNames FL.Flw.TsInv FL.Flw.TsRun.
Open Scope nat_scope.

(* ------------------------------------------------------------------ the invariant with the birth second: clock and environment *)
Lemma tsinvb_tick c e lo w wr keys closed ts dt : TsInvB c e lo w wr keys closed ts -> (0 <= dt)%Z ->
  TsInvB c e lo (set_now w (wnow w + dt)%Z) wr keys closed ts.
Proof. intros [I B] Hdt. split; [apply tsinv_tick; assumption | exact B]. Qed.

Lemma tsinvb_env c e lo w w' wr keys closed ts : TsInvB c e lo w wr keys closed ts ->
  wfs w' = wfs w -> quiet w' -> woff w' = woff w -> wnow w' = wnow w -> TsInvB c e lo w' wr keys closed ts.
Proof.
  intros [I B] F Q O N'. split; [exact (tsinv_env c e lo w w' wr keys closed ts I F Q O N')|]. unfold born in *. rewrite F. exact B.
Qed.

(* ------------------------------------------------------------------ one rotation of the running writer *)
Lemma mount_next_rotates_tsb c crit e lo hi w wr keys closed ts roll force :
  tscfg c crit -> tag_ok c -> years_ok e lo hi -> TsInvB c e lo w wr keys closed ts ->
  (wnow w <= hi)%Z -> (N.of_nat (length closed) <= usize_max)%N ->
  force || rotation_necessary w roll = true ->
  exists w' wr' roll',
    mount_next c w (Active (Some (mk_rs (NSTs ts (Some cur_infix) std_fmt) roll)) wr (cname c)) force
      = (Ok tt, w', Active (Some (mk_rs (NSTs (wnow w) (Some cur_infix) std_fmt) roll')) wr' (cname c))
    /\ TsInvB c e lo w' wr' (keys ++ [(ts, count ts keys)]) (closed ++ [cur_view w wr]) (wnow w)
    /\ cur_view w' wr' = [] /\ same_env w w'.
Proof.
  intros Hcfg T Y [I _] Hhi Hmax Hnec.
  destruct (mount_next_ts c crit e lo hi w wr keys closed ts roll force Hcfg T Y I Hhi Hmax Hnec) as [w' [wr' R]].
  exists w', wr', (reset_roll roll (wnow w)). exact R.
Qed.

(* ------------------------------------------------------------------ write, flush, shutdown *)
Lemma write_active_tsb c crit e lo hi w wr keys closed ts roll b :
  tscfg c crit -> tag_ok c -> years_ok e lo hi -> TsInvB c e lo w wr keys closed ts ->
  (wnow w <= hi)%Z -> (N.of_nat (length closed) <= usize_max)%N ->
  let rot := rotation_necessary w roll in
  exists w' wr' roll' keys' closed' ts',
    write_buffer (st_ts c ts roll wr) w b = (Ok tt, w', st_ts c ts' roll' wr', rot)
    /\ TsInvB c e lo w' wr' keys' closed' ts' /\ same_env w w'
    /\ (keys', closed', cur_view w' wr', ts')
       = (if rot then (keys ++ [(ts, count ts keys)], closed ++ [cur_view w wr], b, wnow w)
          else (keys, closed, cur_view w wr ++ b, ts)).
Proof.
  intros Hcfg T Y [I B] Hhi Hmax rot.
  destruct (write_buffer_ts c crit e lo hi w wr keys closed ts roll b Hcfg T Y I Hhi Hmax) as [w' [wr' [E [I' [B' [S' V']]]]]].
  fold rot in E, I', B', V'. rewrite B in B'.
  eexists w', wr', _, _, _, _. split; [exact E|]. split; [split; [exact I'|]|split; [exact S'|]].
  - rewrite B'. destruct rot; reflexivity.
  - rewrite V'. destruct rot; reflexivity.
Qed.

Lemma tsinvb_flushed c e lo w wr keys closed ts : TsInvB c e lo w wr keys closed ts ->
  TsInvB c e lo (flushed w wr) (emptied wr) keys closed ts /\ cur_view (flushed w wr) (emptied wr) = cur_view w wr.
Proof.
  intros [I B]. destruct (tsinv_flushed c e lo w wr keys closed ts I) as [I1 V1]. split; [|exact V1].
  split; [exact I1|]. rewrite <- B. exact (born_append c e lo w (flushed w wr) wr (emptied wr) keys closed ts (wpend wr) I eq_refl eq_refl).
Qed.

Lemma flush_active_tsb c e lo w wr keys closed ts roll :
  TsInvB c e lo w wr keys closed ts ->
  exists w' wr', flush_state (st_ts c ts roll wr) w = (true, w', st_ts c ts roll wr')
    /\ TsInvB c e lo w' wr' keys closed ts /\ cur_view w' wr' = cur_view w wr /\ wpend wr' = [] /\ same_env w w'.
Proof.
  intros IB. pose proof (ti_quiet _ _ _ _ _ _ _ _ (proj1 IB)) as Q. destruct (tsinvb_flushed c e lo w wr keys closed ts IB) as [I1 V1].
  exists (flushed w wr), (emptied wr). split; [exact (flush_state_quiet c false w _ wr _ Q)|].
  split; [exact I1|]. split; [exact V1|]. split; [reflexivity | exact (flushed_env w wr Q)].
Qed.

(* ------------------------------------------------------------------ the first write of a writer: a directory left behind *)
(* what the writer makes of the directory before anything is written: with append nothing changes - the current file is
   continued, and the naming state takes ITS birth second -; without append the current file is closed under the key of its
   birth second and a new one is created now *)
Lemma initialize_view_ts c crit e lo hi w wr keys closed ts :
  tscfg c crit -> tag_ok c -> years_ok e lo hi -> TsInvB c e lo w wr keys closed ts -> wpend wr = [] ->
  (wnow w <= hi)%Z -> (N.of_nat (length closed) <= usize_max)%N ->
  exists w' wr' keys' closed' ts',
    initialize c w = (Ok (Active (Some (mk_rs (NSTs ts' (Some cur_infix) std_fmt)
                                            (roll_of crit (N.of_nat (length (cur_view w' wr'))) ts'))) wr' (cname c)), w')
    /\ TsInvB c e lo w' wr' keys' closed' ts' /\ same_env w w'
    /\ (keys', closed', cur_view w' wr', ts')
       = (if c_append c then (keys, closed, cur_view w wr, ts)
          else (keys ++ [(ts, count ts keys)], closed ++ [cur_view w wr], [], wnow w)).
Proof.
  intros [Hrot [Hts [Hlink _]]] T Y IB Hp Hhi Hmax. pose proof IB as [I B].
  pose proof I as [Q W Hnd Hoff Hc Hcp Hlen Hcl Hon Hko Hrg Htsr Hwr Hcap].
  pose proof (born_birth _ _ _ _ _ _ _ _ IB) as Ebirth.
  unfold initialize. rewrite Hrot. unfold init_naming, creation_ts_of_current.
  rewrite !(name_of_fixed c w) by assumption. fold (nm c cur_infix) (cname c). rewrite Ebirth.
  destruct (c_append c) eqn:Happ; cbn [negb].
  - (* append: the current file is continued *)
    cbn [bind]. unfold open_log_file. rewrite (name_of_fixed c w) by assumption. fold (nm c cur_infix) (cname c).
    unfold do_symlink. rewrite Hlink, Happ.
    assert (Fo : file_of (wfs w) (cname c) = Some (inode (wfs w) (wino wr))) by (unfold file_of; rewrite Hc; reflexivity).
    assert (D1 : match file_of (wfs w) (cname c) with Some fl => fdir fl = false | None => True end).
    { rewrite Fo. apply Hcp. }
    destruct (p_open_quiet w (cname c) true Q D1) as [w2 [Eop [F2 S2]]]. rewrite Eop.
    assert (Eopen : open_append (wfs w) (cname c) (wnow w) = (wfs w, wino wr)) by (unfold open_append; rewrite Hc; reflexivity).
    rewrite Eopen in *. cbn [fst snd] in *. cbn [bind].
    assert (Fo2 : file_of (wfs w2) (cname c) = Some (inode (wfs w) (wino wr))) by (rewrite F2; exact Fo).
    rewrite (roll_new_quiet w2 crit true (cname c) _ (proj1 S2) Fo2). cbn [bind].
    assert (Ewr : {| wino := wino wr; wpend := []; wcap := c_cap c |} = wr).
    { destruct wr as [i p k]. cbn [wino wpend wcap] in *. subst. reflexivity. }
    rewrite Ewr.
    assert (V2 : cur_view w2 wr = content (wfs w) (wino wr)) by (unfold cur_view; rewrite F2, Hp; apply app_nil_r).
    exists w2, wr, keys, closed, ts. split.
    { rewrite V2. change (fborn (inode (wfs w) (wino wr))) with (born w wr). rewrite B. reflexivity. }
    split. { apply (tsinvb_env c e lo w w2); [exact IB | exact F2 | apply S2 | apply S2 | apply S2]. }
    split; [exact S2|]. unfold cur_view. rewrite F2. reflexivity.
  - (* no append: the current file is closed under the key of its birth second *)
    unfold collision_free. rewrite !tick_quiet by assumption.
    rewrite (fixed_of_fixed0 c w Hts), infix_from_ts_tsx, Hoff.
    rewrite (cfi_tsinv c e lo hi w wr keys closed ts T Y I Hhi Hmax).
    rewrite ?(name_of_fixed c w) by assumption.
    change (as_name (c_spec c) (fixed0 c) (Some (infix_of e (ts, count ts keys)))) with (kname c e (ts, count ts keys)).
    destruct (rotate_tsinv c e lo hi w wr keys closed ts I Y Hhi) as [f1 [Er [L1c RI]]].
    pose proof (p_rename_quiet w (cname c) (kname c e (ts, count ts keys)) Q) as PR. rewrite Er in PR.
    destruct PR as [w1 [Epr [F1 S1]]]. rewrite Epr.
    assert (Eb : birth_or_now w1 (cname c) = wnow w).
    { unfold birth_or_now, file_of. rewrite F1, L1c. apply S1. }
    rewrite Eb. cbn [bind].
    unfold open_log_file. rewrite (name_of_fixed c w1) by assumption. fold (nm c cur_infix) (cname c).
    unfold do_symlink. rewrite Hlink.
    assert (D1 : match file_of (wfs w1) (cname c) with Some fl => fdir fl = false | None => True end).
    { unfold file_of. rewrite F1, L1c. exact Logic.I. }
    destruct (p_open_quiet w1 (cname c) (c_append c) (proj1 S1) D1) as [w2 [Eop [F2 S2]]].
    rewrite Happ in Eop, F2. rewrite Happ, Eop.
    assert (Eopen : open_trunc (wfs w1) (cname c) 0%N (wnow w1) = create_file f1 (cname c) 0%N (wnow w)).
    { rewrite F1. destruct S1 as [_ [-> _]]. apply open_trunc_fresh. exact L1c. }
    rewrite Eopen in *. clear Eopen. cbn [bind].
    assert (F3 : wfs w2 = append_ino (fst (create_file f1 (cname c) 0%N (wnow w))) (wino wr) (wpend wr)).
    { rewrite Hp, append_ino_nil_id. exact F2. }
    assert (SE : same_env w w2) by (eapply same_env_trans; eassumption).
    destruct (RI w2 (proj1 S2) (eq_trans (eoff_same_env c _ _ SE) Hoff) (same_env_now _ _ SE) F3) as [I2 V2].
    (* the roll state is read back from the file just created *)
    rewrite (roll_new_quiet w2 crit false (cname c) _ (proj1 S2) (file_of_lookup _ _ _ (ti_cur _ _ _ _ _ _ _ _ (proj1 I2)))).
    pose proof (proj2 I2) as B2. unfold born in B2. rewrite B2. cbn [bind].
    exists w2, {| wino := snd (create_file f1 (cname c) 0%N (wnow w)); wpend := []; wcap := c_cap c |},
      (keys ++ [(ts, count ts keys)]), (closed ++ [cur_view w wr]), (wnow w).
    split; [rewrite V2; reflexivity|].
    split; [exact I2|]. split; [exact SE|]. rewrite V2. reflexivity.
Qed.
Print Assumptions initialize_view_ts.
