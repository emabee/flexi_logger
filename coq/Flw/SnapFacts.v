(* When is the snapshot of a directory (Run.snapshot: the entries in ascending order of their names) a given list of
   entries?  When the list is in strictly ascending order of names, each of its entries is in the directory as listed, and
   the directory holds no other name and none twice. *)
Require Import FL.Base.Bytes FL.Fs.Fs FL.Names.SortFacts FL.Flw.NumInv FL.Oracles.ReaderOrder FL.Flw.NumListing FL.Flw.TsReader
  FL.Flw.ListingExact.
From Coq Require Import Sorted.
Open Scope nat_scope.

(* every name is below all later ones *)
Fixpoint ascending (l : list bytes) : bool :=
  match l with [] => true | x :: r => forallb (lex_lt x) r && ascending r end.

Lemma ascending_nodup l : ascending l = true -> NoDup l.
Proof.
  induction l as [|x r IH]; cbn [ascending]; intros H; [constructor|]. apply andb_prop in H. destruct H as [Hx Hr].
  constructor; [|exact (IH Hr)]. intros I. rewrite forallb_forall in Hx. specialize (Hx x I). rewrite lex_lt_irrefl in Hx. discriminate.
Qed.

Lemma sort_names_ascending l : ascending l = true -> sort_names l = l.
Proof.
  induction l as [|x r IH]; cbn [ascending]; intros H; [reflexivity|]. apply andb_prop in H. destruct H as [Hx Hr].
  cbn [sort_names fold_right]. fold (sort_names r). rewrite (IH Hr). destruct r as [|y r']; [reflexivity|].
  cbn [forallb] in Hx. apply andb_prop in Hx. cbn [insert_name]. unfold lex_le. rewrite (lex_lt_asym x y (proj1 Hx)). reflexivity.
Qed.

(* a sorted list of different names is strictly ascending *)
Lemma sorted_nodup_ascending l : StronglySorted le_rel l -> NoDup l -> ascending l = true.
Proof.
  induction 1 as [|x r S IH F]; intros Nd; [reflexivity|]. inversion Nd as [|? ? Hx Hr]; subst.
  cbn [ascending]. rewrite (IH Hr), Bool.andb_true_r. apply forallb_forall. intros y Hy.
  rewrite Forall_forall in F. specialize (F y Hy). unfold le_rel, lex_le in F. apply Bool.negb_true_iff in F.
  destruct (lex_lt x y) eqn:E; [reflexivity|]. exfalso. apply Hx. rewrite (lex_lt_connex x y E F). exact Hy.
Qed.

(* a duplicate-free list with the members of an ascending one is sorted into it *)
Lemma sort_names_to_ascending a l : NoDup a -> ascending l = true -> (forall n, In n a <-> In n l) -> sort_names a = l.
Proof.
  intros Na Hl M. rewrite <- (sort_names_ascending l Hl). exact (sort_names_same a l Na (ascending_nodup l Hl) M).
Qed.

Definition ent_name (a : entry) : bytes := fst (fst a).

Lemma snap_entry_plain f n j : lookup f n = Some j -> plain (inode f j) -> snap_entry f n = (n, 0%N, content f j).
Proof. intros L [Hg Hd]. unfold snap_entry, file_of. rewrite L, Hd, Hg. reflexivity. Qed.

Theorem snap_list_exact f (L : list entry) :
  NoDup (dir_names f) -> ascending (List.map ent_name L) = true ->
  (forall a, In a L -> In (ent_name a) (dir_names f) /\ snap_entry f (ent_name a) = a) ->
  (forall n j, lookup f n = Some j -> In n (List.map ent_name L)) ->
  snap_list f = L.
Proof.
  intros Nd Asc Hin Honly. unfold snap_list.
  rewrite (sort_names_to_ascending (dir_names f) (List.map ent_name L) Nd Asc).
  - rewrite map_map. rewrite <- (map_id L) at 2. apply map_ext_in. intros a Ia. exact (proj2 (Hin a Ia)).
  - intros n. split.
    + intros I. apply dir_names_lookup in I. destruct I as [j Lj]. exact (Honly n j Lj).
    + intros I. apply in_map_iff in I. destruct I as [a [<- Ia]]. exact (proj1 (Hin a Ia)).
Qed.
