(* NumbersDirect naming with a cleanup strategy, killed process (C11): examples.  All kill points of a small history are
   computed (vm_compute); the hypotheses of the theorem are met by a concrete history; the restart on every directory that
   a kill leaves is computed (evidence by computation; there is no general restart theorem for NumbersDirect with cleanup). *)
Require Import FL.Base.Bytes FL.Base.BytesFacts FL.Base.PathName FL.Fs.Fs FL.Fs.FsFacts FL.Names.FileSpec FL.Flw.Model
  FL.Flw.ModelFacts FL.Flw.NumInv FL.Flw.Run FL.Flw.NumRun FL.Flw.NumKill FL.Flw.NumRestart FL.Flw.CleanupFacts
  FL.Flw.NumCleanupNames FL.Flw.NumCleanupStep FL.Flw.NumCleanup FL.Flw.NumCleanupKillDir FL.Flw.NumDCleanupStep
  FL.Flw.NumDCleanupRun FL.Flw.NumDCleanup FL.Flw.NumDCleanupKillStep FL.Flw.NumDCleanupKill.
Import String.StringSyntax.
Open Scope nat_scope.
Open Scope string_scope.

(* base name "a", suffix "log", rotation when the file being written holds more than 3 bytes, direct mode, no append *)
Definition kdc (k : cleanup) : config := exd_kcfg k log_sfx.
Definition drec (i : nat) : op := OWrite (bs "abc" ++ [N.of_nat (48 + i)]).
(* records of 4 bytes: every write but the first rotates (and runs the cleanup) first *)
Definition dx1 : list op := [drec 0; drec 1; drec 2].
Definition dx2 : list op := [drec 3; drec 4; OSnap].
Definition dx3 : list op := [drec 5; drec 6].
Definition darmed (k : cleanup) (kp : nat) : sys := fst (run (sys0 0 0) (OStart (kdc k) :: dx1 ++ [OSetKill kp])).
Definition ddead (k : cleanup) (kp : nat) : sys := fst (run (sys0 0 0) (OStart (kdc k) :: dx1 ++ [OSetKill kp] ++ dx2 ++ [OCrash])).
Definition dacked (k : cleanup) (kp : nat) : bytes := written dx1 ++ acked (darmed k kp) dx2.

Lemma kdc_cfg k : numdkcfg (kdc k) (CSize 3) k.
Proof. repeat split. Qed.
Lemma kdc_sfx k : sfx_ok (c_spec (kdc k)).
Proof. vm_compute. reflexivity. Qed.
Lemma dx1_basic : Forall basic_op dx1.
Proof. repeat constructor. Qed.
Lemma dx2_basic : Forall basic_op dx2.
Proof. repeat constructor. Qed.

(* ------------------------------------------------------------------ the directories a kill leaves: KLogGz 2 1 *)
(* effective limits (2, 1): the file being written and one closed file plain, one archive.  Before the kill counter is
   armed: r00000.gz, r00001, r00002 = abc2 (being written).  The write of abc3 rotates: create r00003 (effect 0), cleanup:
   create r00001.log.gz (1), copy (2), finish (3), remove r00001.log (4), remove r00000.log.gz (5); then the write (6). *)
Example dkill_points_loggz :
  (* 0: killed at the creation of the next file *)
  snap_of (ddead (KLogGz 2 1) 0)
  = [ (bs "a_r00000.log.gz", 1%N, bs "abc0"); (bs "a_r00001.log", 0%N, bs "abc1"); (bs "a_r00002.log", 0%N, bs "abc2") ]
  (* 1: killed at the creation of the archive: the new, empty file is there, nothing cleaned yet *)
  /\ snap_of (ddead (KLogGz 2 1) 1)
  = [ (bs "a_r00000.log.gz", 1%N, bs "abc0"); (bs "a_r00001.log", 0%N, bs "abc1"); (bs "a_r00002.log", 0%N, bs "abc2");
      (bs "a_r00003.log", 0%N, []) ]
  (* 2, 3: killed at the copy / at finish - an UNFINISHED, empty archive (kind 2) next to its intact original *)
  /\ snap_of (ddead (KLogGz 2 1) 2)
  = [ (bs "a_r00000.log.gz", 1%N, bs "abc0"); (bs "a_r00001.log", 0%N, bs "abc1"); (bs "a_r00001.log.gz", 2%N, []);
      (bs "a_r00002.log", 0%N, bs "abc2"); (bs "a_r00003.log", 0%N, []) ]
  /\ snap_of (ddead (KLogGz 2 1) 3) = snap_of (ddead (KLogGz 2 1) 2)
  (* 4: killed at the removal of the original - a COMPLETE archive next to its original, same content *)
  /\ snap_of (ddead (KLogGz 2 1) 4)
  = [ (bs "a_r00000.log.gz", 1%N, bs "abc0"); (bs "a_r00001.log", 0%N, bs "abc1"); (bs "a_r00001.log.gz", 1%N, bs "abc1");
      (bs "a_r00002.log", 0%N, bs "abc2"); (bs "a_r00003.log", 0%N, []) ]
  (* 5: killed at the removal of the oldest archive - one archive more than the limit *)
  /\ snap_of (ddead (KLogGz 2 1) 5)
  = [ (bs "a_r00000.log.gz", 1%N, bs "abc0"); (bs "a_r00001.log.gz", 1%N, bs "abc1");
      (bs "a_r00002.log", 0%N, bs "abc2"); (bs "a_r00003.log", 0%N, []) ]
  (* 6: killed at the write: the cleanup is complete, the record is not acknowledged *)
  /\ snap_of (ddead (KLogGz 2 1) 6)
  = [ (bs "a_r00001.log.gz", 1%N, bs "abc1"); (bs "a_r00002.log", 0%N, bs "abc2"); (bs "a_r00003.log", 0%N, []) ]
  /\ dacked (KLogGz 2 1) 6 = bs "abc0abc1abc2" /\ dacked (KLogGz 2 1) 7 = bs "abc0abc1abc2abc3".
Proof. vm_compute. repeat split; reflexivity. Qed.

(* KeepLogFiles(0) (effective limits (1, 0): the file being written only).  Surprising but as the limits say: a kill right
   after the cleanup of a rotation (kill point 2: the write that caused the rotation) leaves ONE EMPTY file - every
   acknowledged record has been removed by the cleanup, as it would have been without the kill *)
Example dkill_points_log0 :
  snap_of (ddead (KLog 0) 1) = [ (bs "a_r00002.log", 0%N, bs "abc2"); (bs "a_r00003.log", 0%N, []) ]
  /\ snap_of (ddead (KLog 0) 2) = [ (bs "a_r00003.log", 0%N, []) ]
  /\ dacked (KLog 0) 2 = bs "abc0abc1abc2".
Proof. vm_compute. repeat split; reflexivity. Qed.

(* ------------------------------------------------------------------ the theorem on this history (non-vacuity) *)
Example dkill_keeps_acked_instance :
  exists files lo,
    kill_view (kdc (KLogGz 2 1)) (wfs (s_w (ddead (KLogGz 2 1) 4))) files None lo
    /\ concat files = bs "abc0abc1abc2"
    /\ lo <= length files - 3
    /\ bs "abc0abc1abc2" = concat (firstn lo files) ++ kv_stream files None lo
    /\ (files <> [] -> exists fl, file_of (wfs (s_w (ddead (KLogGz 2 1) 4))) (rname (kdc (KLogGz 2 1)) (length files - 1)) = Some fl
                                  /\ isplain fl (last files [])).
Proof.
  destruct (numbersdirect_cleanup_kill_keeps_acked (kdc (KLogGz 2 1)) (CSize 3) (KLogGz 2 1) 2 1 0 0 dx1 4 dx2
              (kdc_cfg _) eq_refl eq_refl (kdc_sfx _) dx1_basic dx2_basic) as (fl & lo & V & F & Hlo & T & P).
  assert (E : written dx1 ++ acked (fst (run (sys0 0 0) (OStart (kdc (KLogGz 2 1)) :: dx1 ++ [OSetKill 4]))) dx2 = bs "abc0abc1abc2")
    by (vm_compute; reflexivity).
  rewrite E in F, T. exists fl, lo. auto.
Qed.

(* ------------------------------------------------------------------ the restart, computed *)
(* A new writer with the same configuration on the directory of the killed one, for EVERY kill point of the history: no
   operation fails or panics (codes 0), and what the directory holds afterwards - files by number, archives decompressed, an
   archive next to its original ignored - is a tail of acknowledged ++ own records.  (Computed evidence; the general
   restart theorem for NumbersDirect with cleanup is not proved here.) *)
Definition drestart (k : cleanup) (kp : nat) (ops3 : list op) := run (ddead k kp) (OStart (kdc k) :: ops3 ++ [OStop]).
Definition dall_ok (l : list obs) : bool :=
  forallb (fun o => match o with ObsRes 0%N _ => true | ObsSnap _ _ _ => true | _ => false end) l.
Fixpoint is_sfx (s t : bytes) : bool :=
  beq s t || match t with [] => false | _ :: t' => is_sfx s t' end.
Definition dshadowed (l : list (bytes * N * bytes)) (e : bytes * N * bytes) : bool :=
  let '(nme, kd, _) := e in
  match kd with
  | 0%N => false
  | _ => existsb (fun '(n2, k2, _) => N.eqb k2 0 && beq (gz_name n2) nme) l || N.eqb kd 2
  end.
Definition dstream (l : list (bytes * N * bytes)) : bytes :=
  concat (map (fun '(_, _, d) => d) (filter (fun e => negb (dshadowed l e)) l)).
Definition drestart_ok (k : cleanup) (kp : nat) : bool :=
  let r := drestart k kp dx3 in
  dall_ok (snd r) && is_sfx (dstream (snap_of (fst r))) (dacked k kp ++ written dx3).

Example dall_kill_points_restart :
  forallb (drestart_ok (KLogGz 2 1)) (seq 0 16) = true
  /\ forallb (drestart_ok (KLog 0)) (seq 0 8) = true
  /\ forallb (drestart_ok (KLog 2)) (seq 0 8) = true
  /\ forallb (drestart_ok (KGz 1)) (seq 0 16) = true
  /\ forallb (drestart_ok (KLogGz 1 2)) (seq 0 16) = true.
Proof. vm_compute. repeat split; reflexivity. Qed.
