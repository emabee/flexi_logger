(* TimestampsDirect naming (no rCURRENT: the writer writes into r<time stamp>[.restart-NNNN], the time stamp being the
   second in which the file was started; a rotation opens the file for the infix of the present second, made
   collision-free, and renames nothing): the invariant that ties the concrete state to the abstract reader's view
   (closed files in the order of their closing, current content ++ pending bytes), and the steps of a writer on the
   level of that invariant.
   The keys (second, position within the second) are those of Timestamps naming (TsNames.v / TsInv.v); here the LAST key
   names the file being written. *)
Require Import FL.Base.Bytes FL.Base.BytesFacts FL.Base.PathName FL.Fs.Fs FL.Fs.FsFacts FL.Time.Civil FL.Time.TsFormat
  FL.Names.FileSpec FL.Names.NamesFacts FL.Names.SortFacts FL.Flw.Model FL.Flw.ModelFacts FL.Flw.QuietFacts FL.Flw.NumFs FL.Flw.NumInv
  FL.Flw.NumListing FL.Flw.NumDInv FL.Flw.TsCal FL.Flw.TsTime FL.Flw.TsNames FL.Flw.TsInv.
Open Scope nat_scope.

(* TimestampsDirect naming, no cleanup, no start-time part, no symlink, synchronous; use_utc either way *)
Definition tsdcfg (c : config) (crit : criterion) : Prop :=
  c_rot c = Some (crit, NTimestampsDirect, KNever) /\ fts (c_spec c) = false /\ c_symlink c = false /\ c_async c = false.

(* keys: one more than closed; the key at position (length closed) - the last one - names the file being written *)
Record TsdInv (c : config) (e lo : Z) (w : world) (wr : writer) (keys : list key) (closed : list bytes) : Prop := {
  td_quiet : quiet w;
  td_wf : fs_wf (wfs w);
  td_nodup : NoDup (dir_names (wfs w));
  td_off : eoff c w = e;
  td_len : length keys = S (length closed);
  td_cur : lookup (wfs w) (kname c e (nth (length closed) keys kd)) = Some (wino wr);
  td_curplain : plain (inode (wfs w) (wino wr));
  td_closed : forall i, i < length closed ->
      exists j, lookup (wfs w) (kname c e (nth i keys kd)) = Some j /\ plain (inode (wfs w) j) /\ content (wfs w) j = nth i closed []
                /\ j <> wino wr;
  td_only : forall n j, lookup (wfs w) n = Some j -> exists i, i <= length closed /\ n = kname c e (nth i keys kd);
  td_keys : keys_ok keys;
  td_range : forall k, In k keys -> (lo <= fst k <= wnow w)%Z;
  td_wr : wr_ok wr;
  td_cap : wcap wr = c_cap c }.

(* the same in a directory that also holds the files `extra` (name, content), none of them named like a file of the
   family; the writer may have another buffer capacity than the configuration says (after reopen it is an unbuffered File) *)
Record TsdInvX (c : config) (e lo : Z) (w : world) (wr : writer) (keys : list key) (closed : list bytes)
               (extra : list (bytes * bytes)) : Prop := {
  tx_quiet : quiet w;
  tx_wf : fs_wf (wfs w);
  tx_nodup : NoDup (dir_names (wfs w));
  tx_off : eoff c w = e;
  tx_len : length keys = S (length closed);
  tx_cur : lookup (wfs w) (kname c e (nth (length closed) keys kd)) = Some (wino wr);
  tx_curplain : plain (inode (wfs w) (wino wr));
  tx_closed : forall i, i < length closed ->
      exists j, lookup (wfs w) (kname c e (nth i keys kd)) = Some j /\ plain (inode (wfs w) j) /\ content (wfs w) j = nth i closed []
                /\ j <> wino wr;
  tx_extra : forall n d, In (n, d) extra ->
      exists j, lookup (wfs w) n = Some j /\ plain (inode (wfs w) j) /\ content (wfs w) j = d /\ j <> wino wr;
  tx_only : forall n j, lookup (wfs w) n = Some j ->
      (exists i, i <= length closed /\ n = kname c e (nth i keys kd)) \/ In n (List.map fst extra);
  tx_fresh : forall n k, In n (List.map fst extra) -> in_years e (fst k) -> n <> kname c e k;
  tx_keys : keys_ok keys;
  tx_range : forall k, In k keys -> (lo <= fst k <= wnow w)%Z;
  tx_wr : wr_ok wr }.

Lemma tsdinv_x c e lo w wr keys closed : TsdInv c e lo w wr keys closed -> TsdInvX c e lo w wr keys closed [].
Proof.
  intros [Q W Hnd Hoff Hlen Hc Hcp Hcl Hon Hko Hrg Hwr Hcap]. constructor; try assumption.
  - intros n d [].
  - intros n j H. left. exact (Hon n j H).
  - intros n k [].
Qed.

Lemma tsdinvx_base c e lo w wr keys closed :
  TsdInvX c e lo w wr keys closed [] -> wcap wr = c_cap c -> TsdInv c e lo w wr keys closed.
Proof.
  intros [Q W Hnd Hoff Hlen Hc Hcp Hcl Hex Hon Hfr Hko Hrg Hwr] Hcap. constructor; try assumption.
  intros n j H. destruct (Hon n j H) as [E|[]]. exact E.
Qed.

(* the naming state carries the second of the current file's start (it is never read again) *)
Definition st_tsd (c : config) (e : Z) (k : key) (roll : roll_state) (wr : writer) : flw :=
  {| f_cfg := c; f_inner := Active (Some (mk_rs (NSTs (fst k) None std_fmt) roll)) wr (kname c e k); f_poisoned := false |}.

Lemma tsdinv_dir c e lo w wr keys closed : TsdInv c e lo w wr keys closed -> dir_is c e (wfs w) keys.
Proof.
  intros I. pose proof I as [Q W Hnd Hoff Hlen Hc Hcp Hcl Hon Hko Hrg Hwr Hcap]. split.
  - intros k Ik. destruct (In_nth keys k kd Ik) as [i [Hi E]]. rewrite Hlen in Hi.
    destruct (Nat.eq_dec i (length closed)) as [->|Hne].
    + exists (wino wr). rewrite <- E. split; [exact Hc | apply Hcp].
    + destruct (Hcl i ltac:(lia)) as [j [Lj [[_ Pd] _]]]. rewrite E in Lj. eauto.
  - intros n j L. destruct (Hon n j L) as [i [Hi ->]]. right.
    exists (nth i keys kd). split; [apply nth_In; lia | reflexivity].
Qed.

Lemma tsdinvx_now c e lo w wr keys closed extra : TsdInvX c e lo w wr keys closed extra -> (lo <= wnow w)%Z.
Proof.
  intros I. pose proof (tx_len _ _ _ _ _ _ _ _ I) as Hlen.
  assert (Ik : In (nth 0 keys kd) keys) by (apply nth_In; lia).
  pose proof (tx_range _ _ _ _ _ _ _ _ I _ Ik). lia.
Qed.

Lemma tsdinv_now c e lo w wr keys closed : TsdInv c e lo w wr keys closed -> (lo <= wnow w)%Z.
Proof. intros I. exact (tsdinvx_now _ _ _ _ _ _ _ _ (tsdinv_x _ _ _ _ _ _ _ I)). Qed.

Lemma nth_snoc_last {A} (l : list A) (x d : A) n : length l = n -> nth n (l ++ [x]) d = x.
Proof. intros <-. rewrite app_nth2, Nat.sub_diag by lia. reflexivity. Qed.

Lemma tsdinvx_years c e lo hi w wr keys closed extra :
  TsdInvX c e lo w wr keys closed extra -> years_ok e lo hi -> (wnow w <= hi)%Z ->
  in_years e (wnow w) /\ forall k, In k keys -> in_years e (fst k).
Proof.
  intros I Y Hhi. pose proof (tsdinvx_now _ _ _ _ _ _ _ _ I) as Hlo. split.
  - apply (years_in e lo hi); [exact Y | lia].
  - intros k Ik. pose proof (tx_range _ _ _ _ _ _ _ _ I k Ik). apply (years_in e lo hi); [exact Y | lia].
Qed.

Lemma tsdinv_years c e lo hi w wr keys closed :
  TsdInv c e lo w wr keys closed -> years_ok e lo hi -> (wnow w <= hi)%Z ->
  in_years e (wnow w) /\ forall k, In k keys -> in_years e (fst k).
Proof. intros I. exact (tsdinvx_years _ _ _ _ _ _ _ _ _ (tsdinv_x _ _ _ _ _ _ _ I)). Qed.

(* the file for the key (present second, number of files of this second) is created - its name is free -, the old writer
   flushes into its own inode; this for any world w3 that differs from w by this effect *)
Lemma tsdinvx_rotate c e lo hi w wr keys closed extra :
  TsdInvX c e lo w wr keys closed extra -> years_ok e lo hi -> (wnow w <= hi)%Z ->
  let knew := (wnow w, count (wnow w) keys) in
  lookup (wfs w) (kname c e knew) = None /\
  forall w3, quiet w3 -> eoff c w3 = e -> wnow w3 = wnow w ->
    wfs w3 = append_ino (fst (create_file (wfs w) (kname c e knew) 0%N (wnow w))) (wino wr) (wpend wr) ->
    TsdInvX c e lo w3 {| wino := snd (create_file (wfs w) (kname c e knew) 0%N (wnow w)); wpend := []; wcap := c_cap c |}
            (keys ++ [knew]) (closed ++ [cur_view w wr]) extra
    /\ cur_view w3 {| wino := snd (create_file (wfs w) (kname c e knew) 0%N (wnow w)); wpend := []; wcap := c_cap c |} = []
    /\ birth_or_now w3 (kname c e knew) = wnow w.
Proof.
  intros I Y Hhi knew.
  pose proof I as [Q W Hnd Hoff Hlen Hc Hcp Hcl Hex Hon Hfr Hko Hrg Hwr].
  pose proof (tsdinvx_now _ _ _ _ _ _ _ _ I) as Hlo.
  destruct (tsdinvx_years _ _ _ _ _ _ _ _ _ I Y Hhi) as [Ynow Yk].
  set (kold := nth (length closed) keys kd) in *.
  assert (Hnk : ~ In knew keys).
  { intros Ik. apply (keys_count keys Hko) in Ik. lia. }
  assert (Ht : lookup (wfs w) (kname c e knew) = None).
  { destruct (lookup (wfs w) (kname c e knew)) as [j|] eqn:E; [|reflexivity]. exfalso.
    destruct (Hon _ _ E) as [[i [Hi E1]]|E1].
    - apply kname_inj in E1; [|exact Ynow | apply Yk, nth_In; lia].
      apply Hnk. rewrite E1. apply nth_In. lia.
    - exact (Hfr _ knew E1 Ynow eq_refl). }
  split; [exact Ht|]. intros w3 Q3 Hoff3 Hnow3 F3.
  pose proof (wf_bound _ W _ _ Hc) as Hold.
  pose proof (direct_fs_spec (wfs w) (kname c e knew) (wino wr) (wpend wr) (wnow w) W Hold Ht) as R.
  cbn zeta in R. destruct R as [W3 [Hnew [L3t [L3o [Inew [Iold Ioth]]]]]].
  set (new := snd (create_file (wfs w) (kname c e knew) 0%N (wnow w))) in *.
  set (f3 := append_ino (fst (create_file (wfs w) (kname c e knew) 0%N (wnow w))) (wino wr) (wpend wr)) in *.
  set (wr' := {| wino := new; wpend := []; wcap := c_cap c |}).
  assert (Elen : length (closed ++ [cur_view w wr]) = S (length closed)) by (rewrite app_length; cbn [length]; lia).
  assert (Hneq : forall i, i <= length closed -> kname c e (nth i keys kd) <> kname c e knew).
  { intros i Hi E. apply kname_inj in E; [|apply Yk, nth_In; lia | exact Ynow]. apply Hnk. rewrite <- E. apply nth_In. lia. }
  assert (Keep : forall n j, lookup (wfs w) n = Some j -> n <> kname c e knew -> j <> wino wr ->
                   lookup f3 n = Some j /\ inode f3 j = inode (wfs w) j /\ j <> new).
  { intros n j Lj Hn Hj. assert (Hj1 : j <> new). { pose proof (wf_bound _ W _ _ Lj). rewrite Hnew. lia. }
    rewrite L3o by exact Hn. rewrite Ioth by assumption. split; [exact Lj|]. split; [reflexivity | exact Hj1]. }
  split; [|split].
  { constructor.
    - exact Q3.
    - rewrite F3. exact W3.
    - rewrite F3. unfold f3. change (dir_names (append_ino ?g _ _)) with (dir_names g).
      apply create_nodup; [exact Hnd | exact Ht].
    - exact Hoff3.
    - rewrite !app_length, Hlen. cbn [length]. lia.
    - rewrite Elen. rewrite nth_snoc_last by exact Hlen. rewrite F3. exact L3t.
    - rewrite F3. cbn [wr' wino]. rewrite Inew. split; reflexivity.
    - intros i Hi. rewrite Elen in Hi. rewrite F3. rewrite (app_nth1 keys _ kd) by lia.
      destruct (Nat.eq_dec i (length closed)) as [->|Hne].
      + exists (wino wr). fold kold. rewrite L3o by (apply Hneq; lia). split; [exact Hc|]. split.
        * rewrite Iold. exact Hcp.
        * split; [|cbn [wr' wino]; rewrite Hnew; lia].
          unfold content at 1. rewrite Iold. cbn [with_data fdata]. rewrite app_nth2, Nat.sub_diag by lia. reflexivity.
      + assert (Hi' : i < length closed) by lia. destruct (Hcl i Hi') as [j [Lj [Pj [Cj Hj2]]]].
        destruct (Keep _ j Lj (Hneq i ltac:(lia)) Hj2) as [L3 [E3 N3]].
        exists j. unfold content. rewrite E3, app_nth1 by assumption.
        split; [exact L3|]. split; [exact Pj|]. split; [exact Cj | exact N3].
    - intros n d Hin. rewrite F3. destruct (Hex n d Hin) as [j [Lj [Pj [Cj Hj2]]]].
      assert (Hn : n <> kname c e knew) by (apply Hfr; [exact (in_map fst _ _ Hin) | exact Ynow]).
      destruct (Keep n j Lj Hn Hj2) as [L3 [E3 N3]].
      exists j. unfold content. rewrite E3.
      split; [exact L3|]. split; [exact Pj|]. split; [exact Cj | exact N3].
    - intros n j Hn. rewrite F3 in Hn. rewrite Elen.
      destruct (beq_spec n (kname c e knew)) as [->|Hn2].
      + left. exists (S (length closed)). split; [lia|]. rewrite nth_snoc_last by exact Hlen. reflexivity.
      + rewrite L3o in Hn by assumption. destruct (Hon _ _ Hn) as [[i [Hi E]]|E]; [left | right; exact E].
        exists i. split; [lia|]. rewrite (app_nth1 keys _ kd) by lia. exact E.
    - exact Hfr.
    - apply ko_snoc; [exact Hko|]. intros k Ik. specialize (Hrg k Ik). lia.
    - rewrite Hnow3. intros k Ik. apply in_app_or in Ik. destruct Ik as [Ik|[<-|[]]].
      + exact (Hrg k Ik).
      + unfold knew. cbn [fst]. lia.
    - apply wr_ok_nil. }
  { unfold cur_view. rewrite F3. cbn [wr' wino wpend]. unfold content. rewrite Inew. reflexivity. }
  { unfold birth_or_now. rewrite F3, (file_of_lookup _ _ _ L3t), Inew. reflexivity. }
Qed.

Lemma tsdinv_rotate c e lo hi w wr keys closed :
  TsdInv c e lo w wr keys closed -> years_ok e lo hi -> (wnow w <= hi)%Z ->
  let knew := (wnow w, count (wnow w) keys) in
  lookup (wfs w) (kname c e knew) = None /\
  forall w3, quiet w3 -> eoff c w3 = e -> wnow w3 = wnow w ->
    wfs w3 = append_ino (fst (create_file (wfs w) (kname c e knew) 0%N (wnow w))) (wino wr) (wpend wr) ->
    TsdInv c e lo w3 {| wino := snd (create_file (wfs w) (kname c e knew) 0%N (wnow w)); wpend := []; wcap := c_cap c |}
           (keys ++ [knew]) (closed ++ [cur_view w wr])
    /\ cur_view w3 {| wino := snd (create_file (wfs w) (kname c e knew) 0%N (wnow w)); wpend := []; wcap := c_cap c |} = []
    /\ birth_or_now w3 (kname c e knew) = wnow w.
Proof.
  intros I Y Hhi knew.
  destruct (tsdinvx_rotate c e lo hi w wr keys closed [] (tsdinv_x _ _ _ _ _ _ _ I) Y Hhi) as [Ht R].
  split; [exact Ht|]. intros w3 Q3 Hoff3 Hnow3 F3. destruct (R w3 Q3 Hoff3 Hnow3 F3) as [I3 VB].
  split; [exact (tsdinvx_base _ _ _ _ _ _ _ I3 eq_refl) | exact VB].
Qed.

(* the search for a free infix is answered by the next key: TsNames.collision_free_infix_ts where the directory holds the
   family only *)
Lemma mount_next_tsdx c crit e lo hi w wr keys closed extra roll force :
  tsdcfg c crit -> years_ok e lo hi -> TsdInvX c e lo w wr keys closed extra -> (wnow w <= hi)%Z ->
  collision_free_infix (woff w) (c_spec c) (fixed0 c) (wfs w) (tsx e (wnow w))
    = Some (Some (infix_of e (wnow w, count (wnow w) keys))) ->
  force || rotation_necessary w roll = true ->
  exists w' wr',
    mount_next c w (Active (Some (mk_rs (NSTs (fst (nth (length closed) keys kd)) None std_fmt) roll)) wr
                           (kname c e (nth (length closed) keys kd))) force
      = (Ok tt, w', Active (Some (mk_rs (NSTs (wnow w) None std_fmt) (reset_roll roll (wnow w)))) wr'
                           (kname c e (wnow w, count (wnow w) keys)))
    /\ TsdInvX c e lo w' wr' (keys ++ [(wnow w, count (wnow w) keys)]) (closed ++ [cur_view w wr]) extra
    /\ cur_view w' wr' = [] /\ same_env w w' /\ wcap wr' = c_cap c.
Proof.
  intros [Hrot [Hts [Hlink _]]] Y I Hhi Hcf Hnec.
  pose proof (tx_quiet _ _ _ _ _ _ _ _ I) as Q. pose proof (tx_off _ _ _ _ _ _ _ _ I) as Hoff.
  unfold mount_next. cbn [mk_rs rs_roll rs_naming rs_cleanup rs_bg]. rewrite Hnec.
  unfold collision_free. rewrite !tick_quiet by assumption.
  rewrite (fixed_of_fixed0 c w Hts), infix_from_ts_tsx, Hoff, Hcf.
  destruct (tsdinvx_rotate c e lo hi w wr keys closed extra I Y Hhi) as [Ht RI].
  set (knew := (wnow w, count (wnow w) keys)) in *.
  assert (L : lookup (wfs w) (name_of c w (Some (infix_of e knew))) = None) by (rewrite (name_of_fixed c w) by assumption; exact Ht).
  rewrite (open_log_file_fresh c w (Some (infix_of e knew)) Q Hlink L).
  rewrite (name_of_fixed c w) by assumption.
  change (as_name (c_spec c) (fixed0 c) (Some (infix_of e knew))) with (kname c e knew).
  (* the old writer is dropped *)
  unfold w_drop. rewrite !w_flush_quiet_eq by exact Q. cbn [fst snd wfs set_fs wino wpend].
  unfold cleanup_or_queue. cbn [mk_rs rs_roll rs_naming rs_cleanup rs_bg cleanup_impl].
  rewrite append_ino_nil_id, !set_fs_set_fs.
  set (w3 := set_fs _ _).
  pose proof (same_env_set_fs w (wfs w3) Q) as SE.
  destruct (RI w3 Q (eq_trans (eoff_same_env c _ _ SE) Hoff) eq_refl eq_refl) as [I3 [V3 B3]].
  rewrite reset_size_and_date_eq, B3.
  eexists w3, _. split; [reflexivity|]. split; [exact I3|]. split; [exact V3|]. split; [exact SE | reflexivity].
Qed.

Lemma cfi_tsdinv c e lo hi w wr keys closed :
  tag_ok c -> years_ok e lo hi -> TsdInv c e lo w wr keys closed -> (wnow w <= hi)%Z -> (N.of_nat (length keys) <= usize_max)%N ->
  collision_free_infix (woff w) (c_spec c) (fixed0 c) (wfs w) (tsx e (wnow w))
    = Some (Some (infix_of e (wnow w, count (wnow w) keys))).
Proof.
  intros T Y I Hhi Hmax. destruct (tsdinv_years _ _ _ _ _ _ _ _ I Y Hhi) as [Ynow Yk].
  apply (collision_free_infix_ts c e (woff w) (wfs w) keys (wnow w) (count (wnow w) keys) T Ynow Yk (tsdinv_dir _ _ _ _ _ _ _ I)
           (keys_count keys (td_keys _ _ _ _ _ _ _ I) (wnow w))). pose proof (count_le_length (wnow w) keys). lia.
Qed.

Lemma mount_next_tsd c crit e lo hi w wr keys closed roll force :
  tsdcfg c crit -> tag_ok c -> years_ok e lo hi -> TsdInv c e lo w wr keys closed ->
  (wnow w <= hi)%Z -> (N.of_nat (length keys) <= usize_max)%N ->
  force || rotation_necessary w roll = true ->
  exists w' wr',
    mount_next c w (Active (Some (mk_rs (NSTs (fst (nth (length closed) keys kd)) None std_fmt) roll)) wr
                           (kname c e (nth (length closed) keys kd))) force
      = (Ok tt, w', Active (Some (mk_rs (NSTs (wnow w) None std_fmt) (reset_roll roll (wnow w)))) wr'
                           (kname c e (wnow w, count (wnow w) keys)))
    /\ TsdInv c e lo w' wr' (keys ++ [(wnow w, count (wnow w) keys)]) (closed ++ [cur_view w wr])
    /\ cur_view w' wr' = [] /\ same_env w w'.
Proof.
  intros Hcfg T Y I Hhi Hmax Hnec. pose proof (cfi_tsdinv c e lo hi w wr keys closed T Y I Hhi Hmax) as Hcf.
  destruct (mount_next_tsdx c crit e lo hi w wr keys closed [] roll force Hcfg Y (tsdinv_x _ _ _ _ _ _ _ I) Hhi Hcf Hnec)
    as [w' [wr' [E [I' [V' [S' C']]]]]].
  exists w', wr'. split; [exact E|]. split; [exact (tsdinvx_base _ _ _ _ _ _ _ I' C')|]. split; [exact V' | exact S'].
Qed.

Lemma mount_next_rotates_tsd c crit e lo hi w wr keys closed roll force :
  tsdcfg c crit -> tag_ok c -> years_ok e lo hi -> TsdInv c e lo w wr keys closed ->
  (wnow w <= hi)%Z -> (N.of_nat (length keys) <= usize_max)%N ->
  force || rotation_necessary w roll = true ->
  exists w' wr' roll',
    mount_next c w (Active (Some (mk_rs (NSTs (fst (nth (length closed) keys kd)) None std_fmt) roll)) wr
                           (kname c e (nth (length closed) keys kd))) force
      = (Ok tt, w', Active (Some (mk_rs (NSTs (wnow w) None std_fmt) roll')) wr' (kname c e (wnow w, count (wnow w) keys)))
    /\ TsdInv c e lo w' wr' (keys ++ [(wnow w, count (wnow w) keys)]) (closed ++ [cur_view w wr])
    /\ cur_view w' wr' = [] /\ roll_size_ok roll' 0 /\ same_env w w'
    /\ (forall m cur, roll = RSize m cur -> exists cur', roll' = RSize m cur').
Proof.
  intros Hcfg T Y I Hhi Hmax Hnec.
  destruct (mount_next_tsd c crit e lo hi w wr keys closed roll force Hcfg T Y I Hhi Hmax Hnec) as [w' [wr' [E [I' [V' S']]]]].
  exists w', wr', (reset_roll roll (wnow w)). split; [exact E|]. split; [exact I'|]. split; [exact V'|].
  split; [apply reset_roll_size|]. split; [exact S'|]. intros m cur ->. cbn. eauto.
Qed.

(* ------------------------------------------------------------------ appending to the current inode keeps the invariant *)
Lemma tsdinvx_append c e lo w w' wr wr' keys closed extra x :
  TsdInvX c e lo w wr keys closed extra -> wfs w' = append_ino (wfs w) (wino wr) x -> same_env w w' ->
  wino wr' = wino wr -> wr_ok wr' ->
  TsdInvX c e lo w' wr' keys closed extra /\ content (wfs w') (wino wr') = content (wfs w) (wino wr) ++ x.
Proof.
  intros [Q W Hnd Hoff Hlen Hc Hcp Hcl Hex Hon Hfr Hko Hrg Hwr] F SE Ei Hok.
  pose proof (wf_bound _ W _ _ Hc) as Hold.
  assert (Keep : forall j, j <> wino wr -> inode (wfs w') j = inode (wfs w) j).
  { intros j Hj. rewrite F, inode_append by assumption. destruct (Nat.eqb_spec j (wino wr)); [contradiction | reflexivity]. }
  split.
  - constructor.
    + exact (proj1 SE).
    + rewrite F. apply wf_append. exact W.
    + rewrite F. exact Hnd.
    + unfold eoff in *. destruct SE as [_ [_ [-> _]]]. exact Hoff.
    + exact Hlen.
    + rewrite F, lookup_append, Ei. exact Hc.
    + rewrite F, Ei, inode_append, Nat.eqb_refl by assumption. exact Hcp.
    + intros i Hi. destruct (Hcl i Hi) as [j [Lj [Pj [Cj Hj]]]]. exists j.
      unfold content. rewrite (Keep j Hj), Ei, F, lookup_append. auto.
    + intros n d Hin. destruct (Hex n d Hin) as [j [Lj [Pj [Cj Hj]]]]. exists j.
      unfold content. rewrite (Keep j Hj), Ei, F, lookup_append. auto.
    + intros n j. rewrite F, lookup_append. apply Hon.
    + exact Hfr.
    + exact Hko.
    + destruct SE as [_ [-> _]]. exact Hrg.
    + exact Hok.
  - rewrite F, Ei, content_append, Nat.eqb_refl by assumption. reflexivity.
Qed.

Lemma tsdinv_append c e lo w w' wr wr' keys closed x :
  TsdInv c e lo w wr keys closed -> wfs w' = append_ino (wfs w) (wino wr) x -> same_env w w' ->
  wino wr' = wino wr -> wcap wr' = wcap wr -> wr_ok wr' ->
  TsdInv c e lo w' wr' keys closed /\ content (wfs w') (wino wr') = content (wfs w) (wino wr) ++ x.
Proof.
  intros I F SE Ei Ec Hok.
  destruct (tsdinvx_append c e lo w w' wr wr' keys closed [] x (tsdinv_x _ _ _ _ _ _ _ I) F SE Ei Hok) as [I' C'].
  split; [|exact C']. apply tsdinvx_base; [exact I'|]. rewrite Ec. exact (td_cap _ _ _ _ _ _ _ I).
Qed.

(* ------------------------------------------------------------------ a write on an active writer *)
Lemma w_write_tsdinvx c e lo w wr keys closed extra b : TsdInvX c e lo w wr keys closed extra ->
  exists w' wr', w_write w wr b = (true, w', wr') /\ TsdInvX c e lo w' wr' keys closed extra /\ same_env w w'
    /\ cur_view w' wr' = cur_view w wr ++ b /\ wcap wr' = wcap wr.
Proof.
  intros I.
  destruct (w_write_quiet w wr b (tx_quiet _ _ _ _ _ _ _ _ I) (tx_wr _ _ _ _ _ _ _ _ I)) as [w2 [wr2 [fl [Ew [S2 [F2 [Ei [Ec [Ep Hok]]]]]]]]].
  destruct (tsdinvx_append c e lo w w2 wr wr2 keys closed extra fl I F2 S2 Ei Hok) as [I2 C2].
  exists w2, wr2. split; [exact Ew|]. split; [exact I2|]. split; [exact S2|].
  split; [exact (cur_view_append _ _ _ _ _ _ C2 Ep) | exact Ec].
Qed.

Lemma write_buffer_tsdx c crit e lo hi w wr keys closed extra roll b :
  tsdcfg c crit -> years_ok e lo hi -> TsdInvX c e lo w wr keys closed extra -> (wnow w <= hi)%Z ->
  collision_free_infix (woff w) (c_spec c) (fixed0 c) (wfs w) (tsx e (wnow w))
    = Some (Some (infix_of e (wnow w, count (wnow w) keys))) ->
  let rot := rotation_necessary w roll in
  exists w' wr',
    write_buffer (st_tsd c e (nth (length closed) keys kd) roll wr) w b
      = (Ok tt, w', st_tsd c e (if rot then (wnow w, count (wnow w) keys) else nth (length closed) keys kd)
                      (increase_size (if rot then reset_roll roll (wnow w) else roll) (N.of_nat (length b))) wr', rot)
    /\ TsdInvX c e lo w' wr' (if rot then keys ++ [(wnow w, count (wnow w) keys)] else keys)
               (if rot then closed ++ [cur_view w wr] else closed) extra
    /\ same_env w w'
    /\ cur_view w' wr' = (if rot then b else cur_view w wr ++ b)
    /\ (wcap wr = c_cap c -> wcap wr' = c_cap c).
Proof.
  intros Hcfg Y I Hhi Hcf rot.
  unfold write_buffer, st_tsd. cbn [f_cfg f_inner f_poisoned mk_rs rs_roll]. fold rot.
  destruct rot eqn:Er.
  - destruct (mount_next_tsdx c crit e lo hi w wr keys closed extra roll false Hcfg Y I Hhi Hcf Er) as [w1 [wr1 [E [I1 [V1 [S1 C1]]]]]].
    rewrite E.
    destruct (w_write_tsdinvx c e lo w1 wr1 _ _ extra b I1) as [w2 [wr2 [Ew [I2 [S2 [V2 C2]]]]]]. rewrite Ew.
    exists w2, wr2. split; [reflexivity|]. split; [exact I2|]. split; [exact (same_env_trans _ _ _ S1 S2)|].
    split; [rewrite V2, V1; reflexivity | congruence].
  - unfold mount_next. cbn [mk_rs rs_roll orb]. fold rot. rewrite Er.
    destruct (w_write_tsdinvx c e lo w wr _ _ extra b I) as [w2 [wr2 [Ew [I2 [S2 [V2 C2]]]]]]. rewrite Ew.
    exists w2, wr2. split; [reflexivity|]. split; [exact I2|]. split; [exact S2|]. split; [exact V2 | congruence].
Qed.

Lemma write_buffer_tsd c crit e lo hi w wr keys closed roll b :
  tsdcfg c crit -> tag_ok c -> years_ok e lo hi -> TsdInv c e lo w wr keys closed ->
  (wnow w <= hi)%Z -> (N.of_nat (length keys) <= usize_max)%N ->
  let rot := rotation_necessary w roll in
  exists w' wr',
    write_buffer (st_tsd c e (nth (length closed) keys kd) roll wr) w b
      = (Ok tt, w', st_tsd c e (if rot then (wnow w, count (wnow w) keys) else nth (length closed) keys kd)
                      (increase_size (if rot then reset_roll roll (wnow w) else roll) (N.of_nat (length b))) wr', rot)
    /\ TsdInv c e lo w' wr' (if rot then keys ++ [(wnow w, count (wnow w) keys)] else keys)
              (if rot then closed ++ [cur_view w wr] else closed)
    /\ same_env w w'
    /\ cur_view w' wr' = (if rot then b else cur_view w wr ++ b).
Proof.
  intros Hcfg T Y I Hhi Hmax rot.
  destruct (write_buffer_tsdx c crit e lo hi w wr keys closed [] roll b Hcfg Y (tsdinv_x _ _ _ _ _ _ _ I) Hhi
              (cfi_tsdinv c e lo hi w wr keys closed T Y I Hhi Hmax)) as [w' [wr' [E [I' [S' [V' C']]]]]].
  exists w', wr'. split; [exact E|]. split; [|split; [exact S' | exact V']].
  exact (tsdinvx_base _ _ _ _ _ _ _ I' (C' (td_cap _ _ _ _ _ _ _ I))).
Qed.

(* g: the part of the size count that is not in the current file *)
Lemma write_active_tsdx c crit e lo hi w wr keys closed extra roll g b :
  tsdcfg c crit -> years_ok e lo hi -> TsdInvX c e lo w wr keys closed extra -> (wnow w <= hi)%Z ->
  collision_free_infix (woff w) (c_spec c) (fixed0 c) (wfs w) (tsx e (wnow w))
    = Some (Some (infix_of e (wnow w, count (wnow w) keys))) ->
  roll_size_ok roll (g + length (cur_view w wr)) ->
  let rot := rotation_necessary w roll in
  exists w' wr' roll' keys' closed',
    write_buffer (st_tsd c e (nth (length closed) keys kd) roll wr) w b
      = (Ok tt, w', st_tsd c e (nth (length closed') keys' kd) roll' wr', rot)
    /\ TsdInvX c e lo w' wr' keys' closed' extra
    /\ roll_size_ok roll' ((if rot then 0 else g) + length (cur_view w' wr')) /\ same_env w w'
    /\ (closed', cur_view w' wr') = (if rot then (closed ++ [cur_view w wr], b) else (closed, cur_view w wr ++ b))
    /\ (exists tl, keys' = keys ++ tl)
    /\ (forall m cur, roll = RSize m cur -> exists cur', roll' = RSize m cur')
    /\ (wcap wr = c_cap c -> wcap wr' = c_cap c).
Proof.
  intros Hcfg Y I Hhi Hcf Hsz rot.
  destruct (write_buffer_tsdx c crit e lo hi w wr keys closed extra roll b Hcfg Y I Hhi Hcf) as [w' [wr' [E [I' [S' [V' C']]]]]].
  fold rot in E, I', V'. pose proof (tx_len _ _ _ _ _ _ _ _ I) as Hlen.
  destruct rot; eexists w', wr', _, _, _; (split; [|split; [exact I'|]]).
  - rewrite nth_snoc_last by (rewrite app_length; cbn [length]; lia). exact E.
  - rewrite V'. split; [apply (roll_size_increase _ 0), reset_roll_size|]. split; [exact S'|]. split; [reflexivity|].
    split; [eauto|]. split; [|exact C']. intros m cur ->. cbn. eauto.
  - exact E.
  - rewrite V', app_length, Nat.add_assoc. split; [apply roll_size_increase; exact Hsz|]. split; [exact S'|]. split; [reflexivity|].
    split; [exists []; rewrite app_nil_r; reflexivity|]. split; [|exact C']. intros m cur ->. cbn. eauto.
Qed.

Lemma write_active_tsd c crit e lo hi w wr keys closed roll b :
  tsdcfg c crit -> tag_ok c -> years_ok e lo hi -> TsdInv c e lo w wr keys closed ->
  (wnow w <= hi)%Z -> (N.of_nat (length keys) <= usize_max)%N -> roll_size_ok roll (length (cur_view w wr)) ->
  let rot := rotation_necessary w roll in
  exists w' wr' roll' keys' closed',
    write_buffer (st_tsd c e (nth (length closed) keys kd) roll wr) w b
      = (Ok tt, w', st_tsd c e (nth (length closed') keys' kd) roll' wr', rot)
    /\ TsdInv c e lo w' wr' keys' closed' /\ roll_size_ok roll' (length (cur_view w' wr')) /\ same_env w w'
    /\ (closed', cur_view w' wr') = (if rot then (closed ++ [cur_view w wr], b) else (closed, cur_view w wr ++ b))
    /\ (forall m cur, roll = RSize m cur -> exists cur', roll' = RSize m cur').
Proof.
  intros Hcfg T Y I Hhi Hmax Hsz rot.
  destruct (write_active_tsdx c crit e lo hi w wr keys closed [] roll 0 b Hcfg Y (tsdinv_x _ _ _ _ _ _ _ I) Hhi
              (cfi_tsdinv c e lo hi w wr keys closed T Y I Hhi Hmax) Hsz)
    as [w' [wr' [roll' [keys' [closed' [E [I' [Z' [S' [V' [_ [R' C']]]]]]]]]]]].
  exists w', wr', roll', keys', closed'. split; [exact E|]. split; [exact (tsdinvx_base _ _ _ _ _ _ _ I' (C' (td_cap _ _ _ _ _ _ _ I)))|].
  split; [|split; [exact S' | split; [exact V' | exact R']]].
  fold rot in Z'. destruct rot; exact Z'.
Qed.

(* ------------------------------------------------------------------ flush *)
Lemma tsdinvx_flushed c e lo w wr keys closed extra : TsdInvX c e lo w wr keys closed extra ->
  TsdInvX c e lo (flushed w wr) (emptied wr) keys closed extra /\ cur_view (flushed w wr) (emptied wr) = cur_view w wr.
Proof.
  intros I. pose proof (tx_quiet _ _ _ _ _ _ _ _ I) as Q.
  destruct (tsdinvx_append c e lo w (flushed w wr) wr (emptied wr) keys closed extra (wpend wr) I (flushed_fs w wr)
              (flushed_env w wr Q) eq_refl (wr_ok_nil _ _)) as [I1 C1].
  split; [exact I1|]. unfold cur_view. rewrite C1. cbn [emptied wpend]. apply app_nil_r.
Qed.

Lemma flush_active_tsdx c e lo w wr keys closed extra roll k :
  TsdInvX c e lo w wr keys closed extra ->
  exists w' wr', flush_state (st_tsd c e k roll wr) w = (true, w', st_tsd c e k roll wr')
    /\ TsdInvX c e lo w' wr' keys closed extra /\ cur_view w' wr' = cur_view w wr /\ wpend wr' = [] /\ same_env w w'
    /\ wcap wr' = wcap wr.
Proof.
  intros I. pose proof (tx_quiet _ _ _ _ _ _ _ _ I) as Q. destruct (tsdinvx_flushed _ _ _ _ _ _ _ _ I) as [I1 V1].
  exists (flushed w wr), (emptied wr). split; [exact (flush_state_quiet c false w _ wr _ Q)|].
  split; [exact I1|]. split; [exact V1|]. split; [reflexivity|]. split; [exact (flushed_env w wr Q) | reflexivity].
Qed.

Lemma flush_active_tsd c e lo w wr keys closed roll k :
  TsdInv c e lo w wr keys closed ->
  exists w' wr', flush_state (st_tsd c e k roll wr) w = (true, w', st_tsd c e k roll wr')
    /\ TsdInv c e lo w' wr' keys closed /\ cur_view w' wr' = cur_view w wr /\ wpend wr' = [] /\ same_env w w'.
Proof.
  intros I. destruct (flush_active_tsdx c e lo w wr keys closed [] roll k (tsdinv_x _ _ _ _ _ _ _ I)) as [w' [wr' [E [I' [V' [P' [S' C']]]]]]].
  exists w', wr'. split; [exact E|]. split; [|split; [exact V' | split; [exact P' | exact S']]].
  apply (tsdinvx_base _ _ _ _ _ _ _ I'). rewrite C'. exact (td_cap _ _ _ _ _ _ _ I).
Qed.

Lemma tsdinvx_tick c e lo w wr keys closed extra dt : TsdInvX c e lo w wr keys closed extra -> (0 <= dt)%Z ->
  TsdInvX c e lo (set_now w (wnow w + dt)%Z) wr keys closed extra.
Proof.
  intros [Q W Hnd Hoff Hlen Hc Hcp Hcl Hex Hon Hfr Hko Hrg Hwr] Hdt. constructor; try assumption.
  intros k Ik. specialize (Hrg k Ik). cbn [set_now wnow]. lia.
Qed.

(* ------------------------------------------------------------------ the first write initialises the writer: empty directory *)
Lemma is_prefix_longer (a b : bytes) : b <> [] -> is_prefix (a ++ b) a = false.
Proof.
  intros Hb. destruct (is_prefix (a ++ b) a) eqn:E; [|reflexivity]. exfalso.
  apply is_prefix_iff in E. destruct E as [r E]. apply (f_equal (@length N)) in E. rewrite !app_length in E.
  destruct b; [congruence | cbn [length] in E; lia].
Qed.

Lemma newest_of_next_same infix : newest_of_next infix infix = None.
Proof. unfold newest_of_next, strip_prefix. rewrite is_prefix_longer by discriminate. reflexivity. Qed.

(* with append the directory is listed for the latest time stamp: none, the clock is read *)
Lemma latest_timestamp_file_empty c w rot : quiet w -> names (wfs w) = [] ->
  latest_timestamp_file c w rot std_fmt = (Ok (wnow w), w).
Proof.
  intros Q Hn. unfold latest_timestamp_file. destruct rot; [reflexivity|].
  unfold with_listing. rewrite tick_quiet by assumption. rewrite related_files_empty by assumption. reflexivity.
Qed.

Lemma initialize_tsd_empty c crit e lo w :
  tsdcfg c crit -> quiet w -> names (wfs w) = [] -> inodes (wfs w) = [] -> eoff c w = e -> (lo <= wnow w)%Z ->
  exists w' wr,
    initialize c w = (Ok (Active (Some (mk_rs (NSTs (wnow w) None std_fmt) (roll_of crit 0 (wnow w)))) wr (kname c e (wnow w, 0))), w')
    /\ TsdInv c e lo w' wr [(wnow w, 0)] [] /\ cur_view w' wr = [] /\ same_env w w'.
Proof.
  intros [Hrot [Hts [Hlink _]]] Q Hn Hi Hoff Hlo.
  unfold initialize. rewrite Hrot. unfold init_naming.
  rewrite (latest_timestamp_file_empty c w _ Q Hn). cbn [bind].
  unfold collision_free. rewrite !tick_quiet by assumption. rewrite collision_free_infix_empty by assumption. cbn [bind].
  rewrite newest_of_next_same.
  assert (E0 : (if c_append c then (Ok (NSTs (wnow w) None std_fmt, infix_from_ts c w std_fmt (wnow w)), w)
                else (Ok (NSTs (wnow w) None std_fmt, infix_from_ts c w std_fmt (wnow w)), w))
               = (Ok (NSTs (wnow w) None std_fmt, infix_from_ts c w std_fmt (wnow w)), w)) by (destruct (c_append c); reflexivity).
  rewrite E0. clear E0. cbn [bind].
  rewrite infix_from_ts_tsx, Hoff.
  rewrite (open_log_file_fresh c w (Some (tsx e (wnow w))) Q Hlink (lookup_empty _ _ Hn)). cbn [bind].
  rewrite (name_of_fixed c w) by assumption.
  change (as_name (c_spec c) (fixed0 c) (Some (tsx e (wnow w)))) with (kname c e (wnow w, 0)).
  set (k0 := (wnow w, 0)).
  unfold create_file. rewrite Hn, Hi. cbn [fst length app].
  set (f2 := {| names := [(kname c e k0, 0)]; inodes := [_] |}).
  destruct (one_file_fs (kname c e k0) (fresh_file (wnow w))) as [W2 [Nd2 [Lc Only]]]. fold f2 in W2, Nd2, Lc, Only.
  assert (Fo : file_of (wfs (set_fs w f2)) (kname c e k0) = Some (fresh_file (wnow w))) by (apply file_of_lookup in Lc; exact Lc).
  rewrite (roll_new_quiet (set_fs w f2) crit (c_append c) (kname c e k0) _ Q Fo). cbn [bind fresh_file fdata fborn length N.of_nat].
  assert (Es : (if c_append c then 0%N else 0%N) = 0%N) by (destruct (c_append c); reflexivity). rewrite Es.
  pose proof (same_env_set_fs w f2 Q) as S2.
  eexists (set_fs w f2), _. split; [reflexivity|].
  split; [|split; [reflexivity | exact S2]].
  constructor; cbn [wfs set_fs wino length nth].
  - exact Q.
  - exact W2.
  - exact Nd2.
  - rewrite <- Hoff. exact (eoff_same_env c _ _ S2).
  - reflexivity.
  - exact Lc.
  - split; reflexivity.
  - intros i Hi'. lia.
  - intros n j L. exists 0. split; [lia | exact (Only n j L)].
  - exact (ko_snoc [] (wnow w) ko_nil (fun k (H : In k []) => match H with end)).
  - intros k [<-|[]]. unfold k0. cbn [fst wnow set_fs]. lia.
  - apply wr_ok_nil.
  - reflexivity.
Qed.

Lemma initialize_empty_tsd c crit e lo w :
  tsdcfg c crit -> quiet w -> names (wfs w) = [] -> inodes (wfs w) = [] -> eoff c w = e -> (lo <= wnow w)%Z ->
  exists w' wr roll,
    initialize c w = (Ok (Active (Some (mk_rs (NSTs (wnow w) None std_fmt) roll)) wr (kname c e (wnow w, 0))), w')
    /\ TsdInv c e lo w' wr [(wnow w, 0)] [] /\ cur_view w' wr = [] /\ roll_size_ok roll 0 /\ same_env w w'
    /\ (forall m, crit = CSize m -> roll = RSize m 0).
Proof.
  intros Hcfg Q Hn Hi Hoff Hlo.
  destruct (initialize_tsd_empty c crit e lo w Hcfg Q Hn Hi Hoff Hlo) as [w' [wr [E [I [V S]]]]].
  exists w', wr, (roll_of crit 0 (wnow w)). split; [exact E|]. split; [exact I|]. split; [exact V|].
  split; [exact (roll_of_size crit 0 (wnow w))|]. split; [exact S|]. intros m ->. reflexivity.
Qed.
Print Assumptions mount_next_rotates_tsd.
Print Assumptions initialize_empty_tsd.
