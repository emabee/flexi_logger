(* TimestampsDirect naming with a cleanup strategy: "the cleanup keeps exactly the newest files, compresses losslessly and
   spares the file that is being written", end to end, for every history  OStart c :: ops ++ [OStop]  of basic operations
   from the empty directory with a clock that does not go backwards.  Parts: GenCleanup.v (the cleanup on abstractly named
   files), TsCleanupNames.v (the listing of the cleanup is the keys in descending order; collision_free_infix after
   cleanups), TsdCleanupRun.v (invariant, rotation, run; theorem timestampsdirect_cleanup_stream).  Here: the properties
   spelled out (timestampsdirect_cleanup), no operation fails or panics (timestampsdirect_cleanup_no_panic), the version
   for a size criterion (timestampsdirect_cleanup_partition), examples, the counterexamples that show that the hypotheses
   are necessary, and the comparison with the same history under KNever (timestampsdirect_cleanup_vs_never).

   WHAT THE MODEL DOES (theorem timestampsdirect_cleanup; instances: the examples tk_never .. tk_listing_order).  The files are named by keys (second in
   which the file was started, position within that second): r<time stamp>, r<time stamp>.restart-0000, ...; `keys` lists the
   keys of ALL files ever written in the order of writing, L = number of closed files, the file being written has the key at
   position L.  As for NumbersDirect naming there is no rCURRENT, the file being written is the first entry of the listing
   that the cleanup works on and COUNTS for the first limit; cleanup_impl raises a first limit of 0 to 1 for the direct
   namings; besides (repaired code) the cleanup is told which file it is and skips it - CurrentSpared.v.  With (n, m) = klimd k = (max 1 n0, m) for KeepLogAndCompressedFiles(n0, m):
     - the plain files are those of the keys at the positions L+1-n .. L: the current file and the newest n - 1 closed files;
     - the archives are the m closed files before them, each with exactly the content of the file it replaces;
     - everything older is gone; the current file is never compressed or removed.
   The listing of the cleanup is in DESCENDING KEY ORDER - for different seconds by the time-stamp text, within a second by
   the restart counter -; this needs a clock that does not go backwards: see clock_backwards_current_spared. *)
Require Import FL.Base.Bytes FL.Fs.Fs FL.Time.TsFormat FL.Names.FileSpec FL.Flw.Model FL.Flw.NumInv FL.Flw.Run
  FL.Flw.NumRun FL.Oracles.O_Flw FL.Flw.NumTheorems FL.Flw.NumKillRestart FL.Flw.NumRestart FL.Flw.NumCleanupNames
  FL.Flw.NumCleanup FL.Flw.NumDCleanupStep FL.Flw.NumDCleanupRun FL.Flw.TsTime FL.Flw.TsNames FL.Flw.TsInv
  FL.Flw.TsRun FL.Flw.TsTheorems FL.Flw.TsdInv FL.Flw.TsdRun FL.Flw.TsdTheorems FL.Flw.GenCleanup FL.Flw.GenCleanupRun
  FL.Flw.TsCleanupNames FL.Flw.TsdCleanupRun.
From Coq Require Import Lia.
Open Scope nat_scope.

(* ------------------------------------------------------------------ 1. THE PROPERTIES *)
(* (n, m) = klimd k: n = number of plain files kept, the file being written INCLUDED (n >= 1); m = number of files kept
   as archives.  closed, cur: the reader's view that the run would leave without cleanup (timestampsdirect_cleanup_vs_never; with a
   size criterion it is the greedy partition, timestampsdirect_cleanup_partition) (the contents of the closed files
   in the order of writing, and of the file being written).  K i: the name of the i-th file, G i: the name of its archive. *)
Theorem timestampsdirect_cleanup c crit k n m t0 off ops closed cur :
  tsdkcfg c crit k -> klimd k = Some (n, m) -> tag_ok c -> sfx_ok (c_spec c) ->
  Forall basic_op ops -> Forall tick_ok ops ->
  (0 <= t0 + ts_e c off)%Z -> (t0 + elapsed ops + ts_e c off < sec_max)%Z -> (N.of_nat (length ops) <= usize_max)%N ->
  a_run None ops (snd (run (fst (step (sys0 t0 off) (OStart c))) ops)) = Some (closed, cur) ->
  let f := wfs (s_w (fst (run (sys0 t0 off) (OStart c :: ops ++ [OStop])))) in
  let L := length closed in let lo := S L - (n + m) in let mid := S L - n in
  (* what was written *)
  concat closed ++ cur = written ops
  /\ exists keys : list key,
       let K i := kname c (ts_e c off) (nth i keys kd) in
       let G i := gz_name (K i) in
       (* the keys: one for every file ever written; seconds non-decreasing, within a second the positions 0, 1, 2, .. *)
       length keys = S L /\ keys_ok keys /\ (forall key, In key keys -> (t0 <= fst key <= t0 + elapsed ops)%Z)
       (* exactly these names exist, each once: the current file is among the plain ones; there is no rCURRENT *)
       /\ (forall x, (exists j, lookup f x = Some j) <->
             (exists i, mid <= i <= L /\ x = K i) \/ (exists i, lo <= i < mid /\ x = G i))
       /\ NoDup (dir_names f)
       /\ lookup f (cname c) = None
       (* (a) the limits: at most n plain files, the current one included (so at most n - 1 closed ones), at most m archives;
              the next cleanup would see them like this: NEWEST KEY FIRST, the plain files, then the archives *)
       /\ 1 <= n /\ mid <= L /\ S L - mid <= n /\ mid - lo <= m
       /\ (forall off', list_log_gz off' (c_spec c) (fixed0 c) f (IFTs std_fmt)
                        = Some (rev (map K (seq mid (S L - mid))) ++ rev (map G (seq lo (mid - lo)))))
       (* the newest n - 1 closed files are there as they were closed *)
       /\ (forall i, mid <= i < L -> lookup f (G i) = None /\
             exists fl, file_of f (K i) = Some fl /\ fdata fl = nth i closed [] /\ fgz fl = 0%N /\ fdir fl = false)
       (* (c) the next m are complete archives of what the file held when it was closed; the original is gone *)
       /\ (forall i, lo <= i < mid -> lookup f (K i) = None /\
             exists fl, file_of f (G i) = Some fl /\ fdata fl = nth i closed [] /\ fgz fl = 1%N /\ fdir fl = false)
       (* older files are gone *)
       /\ (forall i, i < lo -> lookup f (K i) = None /\ lookup f (G i) = None)
       (* (b) the survivors, read in key order (the last one is the current file): a suffix of what was written *)
       /\ written ops = concat (firstn lo closed) ++ concat (map (fun i => data_at f (if mid <=? i then K i else G i)) (seq lo (S L - lo)))
       (* (d) the current file is never compressed or removed: it is plain and holds what it would hold without cleanup *)
       /\ lookup f (G L) = None
       /\ (exists fl, file_of f (K L) = Some fl /\ fdata fl = cur /\ fgz fl = 0%N /\ fdir fl = false).
Proof.
  intros Hcfg Hk T Hsfx Hb Htk Hlo Hhi Hmax Ea f L lo mid.
  pose proof (timestampsdirect_cleanup_stream c crit k t0 off ops Hcfg T Hsfx Hb Htk Hlo Hhi Hmax) as S. cbv zeta in S. rewrite Ea in S. fold f in S.
  destruct S as [Fl [[keys [V [Hko Hrg]]] _]]. cbn [flat] in Fl. split; [exact Fl|].
  unfold d_lo, d_mid in V. rewrite Hk in V. fold L lo mid in V.
  pose proof (klimd_pos _ _ _ Hk) as Hn.
  destruct V as (Hlen & KD & Hmid & Hnc). fold L in Hlen, Hmid.
  exists keys. cbv zeta. set (e := ts_e c off) in *.
  set (all := closed ++ [cur]) in *.
  assert (Elen : length all = S L) by (unfold all; apply glen_snoc).
  assert (Yk : forall key, In key keys -> in_years e (fst key)).
  { intros key Ik. apply (years_in e t0 (t0 + elapsed ops)); [split; assumption | exact (Hrg key Ik)]. }
  assert (Hlen' : length keys = length all) by (rewrite Elen; exact Hlen).
  pose proof (gnames_ts c e keys Hsfx Hko Yk) as GN. rewrite Hlen' in GN.
  pose proof (gdir_names _ _ _ _ _ _ KD Hnc) as Names.
  destruct (gdir_properties _ _ _ _ _ _ GN KD) as (Pl & Ar & Old & Data).
  rewrite Elen in Names, Pl, Data.
  assert (Nth1 : forall i, i < L -> nth i all [] = nth i closed []) by (intros i Hi; unfold all; apply app_nth1; exact Hi).
  assert (NthL : nth L all [] = cur) by (unfold all, L; rewrite app_nth2, Nat.sub_diag by lia; reflexivity).
  split; [exact Hlen|]. split; [exact Hko|]. split; [exact Hrg|].
  split.
  { intros x. rewrite (Names x). split; (intros [(i & Hi & ->)|(i & Hi & ->)]; [left | right]; exists i; (split; [lia | reflexivity])). }
  split; [exact (gd_nodup _ _ _ _ _ _ KD)|]. split; [exact Hnc|].
  split; [exact Hn|]. split; [exact Hmid|]. split; [unfold mid; lia|]. split; [unfold lo, mid; lia|].
  split. { intros off'. rewrite <- Elen. apply (list_log_gz_ts c e off' f keys all lo mid Hsfx Hko Yk Hlen' KD). }
  split. { intros i Hi. rewrite <- Nth1 by lia. apply Pl. lia. }
  split. { intros i Hi. rewrite <- Nth1 by lia. apply Ar. exact Hi. }
  split; [exact Old|].
  split.
  { change (fun i => data_at f (if mid <=? i then kname c e (nth i keys kd) else gz_name (kname c e (nth i keys kd))))
      with (fun i => data_at f (gentry (tname c e keys) mid i)).
    rewrite Data.
    replace (firstn lo closed) with (firstn lo all) by (unfold all; rewrite firstn_app; replace (lo - length closed) with 0 by (fold L; lia); cbn [firstn]; apply app_nil_r).
    rewrite <- concat_app, firstn_skipn. unfold all. rewrite concat_app. cbn [concat]. rewrite app_nil_r. symmetry. exact Fl. }
  destruct (Pl L ltac:(lia)) as (NoG & Cur). rewrite NthL in Cur. split; [exact NoG | exact Cur].
Qed.
Print Assumptions timestampsdirect_cleanup.

(* ------------------------------------------------------------------ 2. NO OPERATION FAILS OR PANICS *)
Theorem timestampsdirect_cleanup_no_panic c crit k t0 off ops :
  tsdkcfg c crit k -> tag_ok c -> sfx_ok (c_spec c) -> Forall basic_op ops -> Forall tick_ok ops ->
  (0 <= t0 + ts_e c off)%Z -> (t0 + elapsed ops + ts_e c off < sec_max)%Z -> (N.of_nat (length ops) <= usize_max)%N ->
  Forall obs_ok (snd (run (sys0 t0 off) (OStart c :: ops ++ [OStop]))).
Proof.
  intros Hcfg T Hsfx Hb Htk Hlo Hhi Hmax.
  pose proof (timestampsdirect_cleanup_stream c crit k t0 off ops Hcfg T Hsfx Hb Htk Hlo Hhi Hmax) as S. cbv zeta in S.
  exact (proj1 (proj2 (proj2 S))).
Qed.
Print Assumptions timestampsdirect_cleanup_no_panic.

(* ------------------------------------------------------------------ size criterion: the view is a function of the operations *)
(* C08 + cleanup: the closed files and the current file are the greedy partition of what was written *)
Theorem timestampsdirect_cleanup_partition c k m t0 off ops :
  tsdkcfg c (CSize m) k -> tag_ok c -> sfx_ok (c_spec c) -> Forall basic_op ops -> Forall tick_ok ops ->
  (0 <= t0 + ts_e c off)%Z -> (t0 + elapsed ops + ts_e c off < sec_max)%Z -> (N.of_nat (length ops) <= usize_max)%N ->
  let f := wfs (s_w (fst (run (sys0 t0 off) (OStart c :: ops ++ [OStop])))) in
  match s_run m None ops with
  | None => names f = []
  | Some (closed, cur) =>
    closed ++ [cur] = expected_files m None (items false ops)
    /\ exists keys, tsdk_view c (ts_e c off) f keys closed cur (d_lo k (length closed)) (d_mid k (length closed)) /\ keys_ok keys
  end.
Proof.
  intros Hcfg T Hsfx Hb Htk Hlo Hhi Hmax f.
  pose proof (timestampsdirect_cleanup_stream c (CSize m) k t0 off ops Hcfg T Hsfx Hb Htk Hlo Hhi Hmax) as S. cbv zeta in S.
  destruct S as (_ & V & _ & Z). rewrite (Z m eq_refl) in V. fold f in V.
  pose proof (s_run_none m ops Hb) as P.
  destruct (s_run m None ops) as [[closed cur]|]; [|exact V]. split; [exact P|].
  destruct V as [keys [V [K _]]]. exists keys. auto.
Qed.
Print Assumptions timestampsdirect_cleanup_partition.

(* ------------------------------------------------------------------ examples *)
Import String.StringSyntax.
Open Scope string_scope.

Definition tk_cfg (k : cleanup) (sfx : String.string) : config :=
  {| c_spec := ex_sp sfx; c_append := false; c_cap := Some 3%nat; c_rot := Some (CSize 100, NTimestampsDirect, k); c_utc := false;
     c_symlink := false; c_bg := false; c_async := false; c_start := None |}.
Definition tk_final (k : cleanup) (sfx : String.string) (ops : list op) : list (bytes * N * bytes) :=
  snap_of (fst (run (sys0 0 0) (OStart (tk_cfg k sfx) :: ops ++ [OStop]))).

(* ext_ops (TsTheorems.v): four files in second 0 ("a", "b", "c", "d": <ts>, restart-0000 .. restart-0002), then the clock
   advances, two files in second 1 ("e", "f").  Without cleanup: all six, the last one is the file being written *)
Example tk_never :
  tk_final KNever "log" ext_ops
  = [ (bs "app_r1970-01-01_00-00-00.log", 0%N, bs "a");
      (bs "app_r1970-01-01_00-00-00.restart-0000.log", 0%N, bs "b");
      (bs "app_r1970-01-01_00-00-00.restart-0001.log", 0%N, bs "c");
      (bs "app_r1970-01-01_00-00-00.restart-0002.log", 0%N, bs "d");
      (bs "app_r1970-01-01_00-00-01.log", 0%N, bs "e");
      (bs "app_r1970-01-01_00-00-01.restart-0000.log", 0%N, bs "f") ].
Proof. vm_compute. reflexivity. Qed.

(* KLog 2: TWO plain files in total - the current file and ONE closed file *)
Example tk_log_2 :
  tk_final (KLog 2) "log" ext_ops
  = [ (bs "app_r1970-01-01_00-00-01.log", 0%N, bs "e"); (bs "app_r1970-01-01_00-00-01.restart-0000.log", 0%N, bs "f") ].
Proof. vm_compute. reflexivity. Qed.

(* KLog 1 and KLog 0: the current file only *)
Example tk_log_1_0 :
  tk_final (KLog 1) "log" ext_ops = [ (bs "app_r1970-01-01_00-00-01.restart-0000.log", 0%N, bs "f") ]
  /\ tk_final (KLog 0) "log" ext_ops = [ (bs "app_r1970-01-01_00-00-01.restart-0000.log", 0%N, bs "f") ].
Proof. split; vm_compute; reflexivity. Qed.

(* KGz 2 = KLogGz 0 2 = KLogGz 1 2: the current file stays PLAIN (it is neither compressed nor removed although the first
   limit is 0); the two closed files before it - one of second 0, one of second 1 - are archives *)
Example tk_gz_2 :
  let d := [ (bs "app_r1970-01-01_00-00-00.restart-0002.log.gz", 1%N, bs "d"); (bs "app_r1970-01-01_00-00-01.log.gz", 1%N, bs "e");
             (bs "app_r1970-01-01_00-00-01.restart-0000.log", 0%N, bs "f") ] in
  tk_final (KGz 2) "log" ext_ops = d /\ tk_final (KLogGz 0 2) "log" ext_ops = d /\ tk_final (KLogGz 1 2) "log" ext_ops = d.
Proof. repeat split; vm_compute; reflexivity. Qed.

Example tk_loggz_2_2 :
  tk_final (KLogGz 2 2) "log" ext_ops
  = [ (bs "app_r1970-01-01_00-00-00.restart-0001.log.gz", 1%N, bs "c");
      (bs "app_r1970-01-01_00-00-00.restart-0002.log.gz", 1%N, bs "d");
      (bs "app_r1970-01-01_00-00-01.log", 0%N, bs "e");
      (bs "app_r1970-01-01_00-00-01.restart-0000.log", 0%N, bs "f") ].
Proof. vm_compute. reflexivity. Qed.

(* both limits 0: only the current file is left - it is never touched *)
Example tk_loggz_0_0 :
  tk_final (KLogGz 0 0) "log" ext_ops = [ (bs "app_r1970-01-01_00-00-01.restart-0000.log", 0%N, bs "f") ]
  /\ tk_final (KGz 0) "log" ext_ops = [ (bs "app_r1970-01-01_00-00-01.restart-0000.log", 0%N, bs "f") ].
Proof. split; vm_compute; reflexivity. Qed.

(* the listing that the NEXT cleanup would work on, in the state before the stop: newest key first - the plain files, then
   the archives; within second 0 the higher restart counter first *)
Example tk_listing_order :
  snd (step (fst (run (sys0 0 0) (OStart (tk_cfg (KLogGz 2 3) "log") :: ext_ops))) (OQuery sel_log_gz))
  = ObsList 0%N (List.map bs ["app_r1970-01-01_00-00-01.restart-0000.log"; "app_r1970-01-01_00-00-01.log";
                              "app_r1970-01-01_00-00-00.restart-0002.log.gz"; "app_r1970-01-01_00-00-00.restart-0001.log.gz";
                              "app_r1970-01-01_00-00-00.restart-0000.log.gz"]).
Proof. vm_compute. reflexivity. Qed.

(* the hypotheses of the theorems hold for this history (they are not vacuous), and the conclusion is what was computed *)
Lemma tk_cfg_ok k sfx : tsdkcfg (tk_cfg k sfx) (CSize 100) k.
Proof. repeat split. Qed.
Lemma tk_tag_ok k : tag_ok (tk_cfg k "log").
Proof. apply tag_free_ok. split; vm_compute; reflexivity. Qed.
Lemma tk_sfx_ok k : sfx_ok (c_spec (tk_cfg k "log")).
Proof. vm_compute. reflexivity. Qed.
Lemma tk_bounds k : (0 <= 0 + ts_e (tk_cfg k "log") 0)%Z /\ (0 + elapsed ext_ops + ts_e (tk_cfg k "log") 0 < sec_max)%Z
  /\ (N.of_nat (length ext_ops) <= usize_max)%N.
Proof. split; [vm_compute; discriminate|]. split; [vm_compute; reflexivity | vm_compute; discriminate]. Qed.

Example tk_view :
  a_run None ext_ops (snd (run (fst (step (sys0 0 0) (OStart (tk_cfg (KLogGz 2 2) "log")))) ext_ops))
  = Some ([bs "a"; bs "b"; bs "c"; bs "d"; bs "e"], bs "f").
Proof. vm_compute. reflexivity. Qed.

(* timestampsdirect_cleanup for KLogGz 2 2 and five rotations: L = 5, n = 2, m = 2, lo = 2, mid = 4.  The keys are determined
   by the names that exist: the names at the positions 2 .. 5 are those of tk_loggz_2_2 *)
Example tk_instance :
  let c := tk_cfg (KLogGz 2 2) "log" in
  let f := wfs (s_w (fst (run (sys0 0 0) (OStart c :: ext_ops ++ [OStop])))) in
  exists keys : list key,
    let K i := kname c 0 (nth i keys kd) in
    let G i := gz_name (K i) in
    length keys = 6 /\ keys_ok keys
    /\ (forall x, (exists j, lookup f x = Some j) <-> (exists i, 4 <= i <= 5 /\ x = K i) \/ (exists i, 2 <= i < 4 /\ x = G i))
    /\ list_log_gz 0 (c_spec c) (fixed0 c) f (IFTs std_fmt) = Some [K 5; K 4; G 3; G 2]
    /\ (exists fl, file_of f (K 4) = Some fl /\ fdata fl = bs "e" /\ fgz fl = 0%N /\ fdir fl = false)
    /\ (exists fl, file_of f (G 3) = Some fl /\ fdata fl = bs "d" /\ fgz fl = 1%N /\ fdir fl = false)
    /\ lookup f (K 3) = None /\ lookup f (K 1) = None /\ lookup f (G 1) = None
    /\ lookup f (G 5) = None
    /\ (exists fl, file_of f (K 5) = Some fl /\ fdata fl = bs "f" /\ fgz fl = 0%N /\ fdir fl = false).
Proof.
  intros c f. destruct (tk_bounds (KLogGz 2 2)) as (B1 & B2 & B3).
  pose proof (timestampsdirect_cleanup c (CSize 100) (KLogGz 2 2) 2 2 0 0 ext_ops _ _
                (tk_cfg_ok _ _) eq_refl (tk_tag_ok _) (tk_sfx_ok _) ext_ops_basic ext_ops_ticks B1 B2 B3 tk_view) as T.
  cbv zeta in T. fold f in T. destruct T as (_ & keys & T). exists keys. cbv zeta.
  change (length [bs "a"; bs "b"; bs "c"; bs "d"; bs "e"]) with 5 in T. cbn [Nat.sub Nat.add] in T.
  change (ts_e c 0) with 0%Z in T.
  destruct T as (Hl & Hko & _ & Names & _ & _ & _ & _ & _ & _ & LG & Pl & Ar & Old & _ & NoG & Cur).
  split; [exact Hl|]. split; [exact Hko|]. split; [exact Names|].
  split; [exact (LG 0%Z)|].
  split; [exact (proj2 (Pl 4 ltac:(lia)))|].
  split; [exact (proj2 (Ar 3 ltac:(lia)))|].
  split; [exact (proj1 (Ar 3 ltac:(lia)))|].
  split; [exact (proj1 (Old 1 ltac:(lia)))|].
  split; [exact (proj2 (Old 1 ltac:(lia)))|].
  split; [exact NoG | exact Cur].
Qed.

Example tk_no_panic_instance :
  Forall obs_ok (snd (run (sys0 0 0) (OStart (tk_cfg (KGz 2) "log") :: ext_ops ++ [OStop]))).
Proof.
  destruct (tk_bounds (KGz 2)) as (B1 & B2 & B3).
  exact (timestampsdirect_cleanup_no_panic _ (CSize 100) (KGz 2) 0 0 ext_ops (tk_cfg_ok _ _) (tk_tag_ok _) (tk_sfx_ok _)
           ext_ops_basic ext_ops_ticks B1 B2 B3).
Qed.

(* a history with append, a discriminant, no suffix, use_utc with a zone offset, an age-or-size criterion, triggers (also
   before the first record), flushes and clock ticks *)
Definition tk_c2 : config :=
  {| c_spec := {| fbase := bs "srv"; fdisc := Some (bs "a1"); fts := false; fsfx := None |};
     c_append := true; c_cap := Some 4%nat; c_rot := Some (CAgeOrSize ADay 6, NTimestampsDirect, KLogGz 1 1); c_utc := true; c_symlink := false;
     c_bg := false; c_async := false; c_start := None |}.
Definition tk_ops2 : list op :=
  [OTrigger; OWrite (bs "abcd"); OTick 3; OWrite (bs "ef"); OFlush; OTrigger; OPlain (bs "g"); OSnap;
   OTick 90000; OWrite (bs "hi"); OWrite (bs "jklmnop"); OWrite (bs "q"); OTrigger].
Example tk2_dir :
  snap_of (fst (run (sys0 1700000000 7200) (OStart tk_c2 :: tk_ops2 ++ [OStop])))
  = [ (bs "srv_a1_r2023-11-15_23-13-23.restart-0000.gz", 1%N, bs "q"); (bs "srv_a1_r2023-11-15_23-13-23.restart-0001", 0%N, bs "") ].
Proof. vm_compute. reflexivity. Qed.
Example tk2_view :
  a_run None tk_ops2 (snd (run (fst (step (sys0 1700000000 7200) (OStart tk_c2))) tk_ops2))
  = Some ([bs "abcdef"; bs "g"; bs "hijklmnop"; bs "q"], []).
Proof. vm_compute. reflexivity. Qed.
Example tk2_instance :
  Forall obs_ok (snd (run (sys0 1700000000 7200) (OStart tk_c2 :: tk_ops2 ++ [OStop])))
  /\ written tk_ops2 = bs "abcdefghijklmnopq".
Proof.
  split; [|vm_compute; reflexivity].
  apply (timestampsdirect_cleanup_no_panic tk_c2 (CAgeOrSize ADay 6) (KLogGz 1 1)).
  - repeat split.
  - apply tag_free_ok. split; vm_compute; reflexivity.
  - exact I.
  - repeat constructor.
  - repeat (apply Forall_cons; [cbn [tick_ok]; first [exact Logic.I | lia]|]). apply Forall_nil.
  - vm_compute. discriminate.
  - vm_compute. reflexivity.
  - vm_compute. discriminate.
Qed.

(* ------------------------------------------------------------------ the hypotheses are necessary (findings) *)
(* 1. A CLOCK THAT GOES BACKWARDS (tick_ok violated).  Before the repair the cleanup protected the file that is being
      written only through its position in the listing: KLog 1 REMOVED it, KGz 1 compressed it, the later records were
      lost without any error.  back_ops (TsTheorems.v) writes "a" in second 0,
      "b" in second 5, then the clock is set back to second 0 and "c" and "d" are written.  The files of "c" and "d" carry
      the time stamp of second 0 and are listed BEHIND the file of second 5.  The cleanup is now told which file is being
      written (cleanup_impl: cur = Some path) and skips it wherever the listing puts it (Flw/CurrentSpared.v:
      cleanup_spares_current, timestampsdirect_current_never_cleaned):
      - after "c" was written (the first seven operations) the file that is being written exists and holds "c";
      - at the end it exists and holds "d", with KLog 1, KGz 1 and KLog 2; no operation fails.
      What remains of the finding (the clock hypothesis is still needed for the retention statement): the limits count
      positions of the listing, and the file of second 5 is listed first - "b" survives as "the newest file" while the
      younger record "c" is removed with its file, and KGz 1 leaves "b" uncompressed. *)
Example clock_backwards_current_spared :
  ~ Forall tick_ok back_ops
  /\ written back_ops = bs "abcd"
  /\ tk_final KNever "log" back_ops
     = [ (bs "app_r1970-01-01_00-00-00.log", 0%N, bs "a");
         (bs "app_r1970-01-01_00-00-00.restart-0000.log", 0%N, bs "c");
         (bs "app_r1970-01-01_00-00-00.restart-0001.log", 0%N, bs "d");
         (bs "app_r1970-01-01_00-00-05.log", 0%N, bs "b") ]
  (* after the clock was set back and "c" was written *)
  /\ tk_final (KLog 1) "log" (firstn 7 back_ops)
     = [ (bs "app_r1970-01-01_00-00-00.log", 0%N, bs "c"); (bs "app_r1970-01-01_00-00-05.log", 0%N, bs "b") ]
  /\ tk_final (KGz 1) "log" (firstn 7 back_ops)
     = [ (bs "app_r1970-01-01_00-00-00.restart-0000.log", 0%N, bs "c"); (bs "app_r1970-01-01_00-00-05.log", 0%N, bs "b") ]
  (* at the end *)
  /\ tk_final (KLog 1) "log" back_ops
     = [ (bs "app_r1970-01-01_00-00-00.restart-0000.log", 0%N, bs "d"); (bs "app_r1970-01-01_00-00-05.log", 0%N, bs "b") ]
  /\ tk_final (KGz 1) "log" back_ops
     = [ (bs "app_r1970-01-01_00-00-00.restart-0001.log", 0%N, bs "d"); (bs "app_r1970-01-01_00-00-05.log", 0%N, bs "b") ]
  /\ tk_final (KLog 2) "log" back_ops
     = [ (bs "app_r1970-01-01_00-00-00.restart-0001.log", 0%N, bs "d"); (bs "app_r1970-01-01_00-00-05.log", 0%N, bs "b") ]
  /\ Forall obs_ok (snd (run (sys0 0 0) (OStart (tk_cfg (KLog 1) "log") :: back_ops ++ [OStop])))
  /\ Forall obs_ok (snd (run (sys0 0 0) (OStart (tk_cfg (KGz 1) "log") :: back_ops ++ [OStop]))).
Proof.
  split.
  { intros H. rewrite Forall_forall in H. specialize (H (OTick (-5))). cbn [tick_ok] in H.
    assert (X : (0 <= -5)%Z) by (apply H; unfold back_ops; cbn [In]; tauto). lia. }
  split; [vm_compute; reflexivity|]. split; [vm_compute; reflexivity|]. split; [vm_compute; reflexivity|].
  split; [vm_compute; reflexivity|]. split; [vm_compute; reflexivity|]. split; [vm_compute; reflexivity|].
  split; [vm_compute; reflexivity|].
  split; vm_compute; repeat constructor.
Qed.

(* 2. The suffix "gz": every file is listed twice (as a log file and as an archive), the current file included.  With
      KLogGz 2 1 one expects the current file, one closed file plain and one archive; what is left is the current file only. *)
Example tk_sfx_gz_counterexample :
  ~ sfx_ok (c_spec (tk_cfg (KLogGz 2 1) "gz"))
  /\ tk_final (KLogGz 2 1) "gz" ext_ops = [ (bs "app_r1970-01-01_00-00-01.restart-0000.gz", 0%N, bs "f") ].
Proof. split; [vm_compute; discriminate | vm_compute; reflexivity]. Qed.

(* 3. A suffix that ends with ".gz": the closed files are taken for archives and are never compressed; with KGz 2 the two
      files before the current one are kept PLAIN (kind 0) and there is no archive. *)
Example tk_sfx_log_gz_counterexample :
  ~ sfx_ok (c_spec (tk_cfg (KGz 2) "log.gz"))
  /\ tk_final (KGz 2) "log.gz" ext_ops
     = [ (bs "app_r1970-01-01_00-00-00.restart-0002.log.gz", 0%N, bs "d"); (bs "app_r1970-01-01_00-00-01.log.gz", 0%N, bs "e");
         (bs "app_r1970-01-01_00-00-01.restart-0000.log.gz", 0%N, bs "f") ].
Proof. split; [vm_compute; discriminate | vm_compute; reflexivity]. Qed.

(* ------------------------------------------------------------------ THE SAME HISTORY WITHOUT CLEANUP *)
(* The rotation flags - and with them the view (closed, cur) - do not depend on the cleanup strategy: they are decided by the
   clock and the rotation state alone (trace_ok).  So the view of the run with cleanup IS what the same history leaves in the
   directory when the strategy is KNever (TsdTheorems.v: all files plain, named by the keys). *)
Close Scope string_scope.
Definition never_cfg_t (c : config) (crit : criterion) : config :=
  {| c_spec := c_spec c; c_append := c_append c; c_cap := c_cap c; c_rot := Some (crit, NTimestampsDirect, KNever); c_utc := c_utc c;
     c_symlink := c_symlink c; c_bg := c_bg c; c_async := c_async c; c_start := c_start c |}.

(* the configuration of the comparison run is one of TsdInv.v / TsdTheorems.v (tsdcfg): the run without cleanup leaves all the
   files, plain, named by keys, with the contents closed ++ [cur] (tsd_view), or nothing *)
Theorem timestampsdirect_cleanup_vs_never c crit k t0 off ops :
  tsdkcfg c crit k -> tag_ok c -> sfx_ok (c_spec c) -> Forall basic_op ops -> Forall tick_ok ops ->
  (0 <= t0 + ts_e c off)%Z -> (t0 + elapsed ops + ts_e c off < sec_max)%Z -> (N.of_nat (length ops) <= usize_max)%N ->
  let a := a_run None ops (snd (run (fst (step (sys0 t0 off) (OStart c))) ops)) in
  let f0 := wfs (s_w (fst (run (sys0 t0 off) (OStart (never_cfg_t c crit) :: ops ++ [OStop])))) in
  tsdcfg (never_cfg_t c crit) crit
  /\ exists keys, tsd_view (never_cfg_t c crit) (ts_e c off) f0 keys (files_of a) /\ keys_ok keys
                  /\ (forall key, In key keys -> (t0 <= fst key <= t0 + elapsed ops)%Z).
Proof.
  intros Hcfg T Hsfx Hb Htk Hlo Hhi Hmax a f0.
  assert (Hc0 : tsdcfg (never_cfg_t c crit) crit) by (destruct Hcfg as (_ & ? & ? & ? & _); repeat split; assumption).
  assert (Hk0 : tsdkcfg (never_cfg_t c crit) crit KNever) by (destruct Hcfg as (_ & ? & ? & ? & ?); repeat split; assumption).
  split; [exact Hc0|].
  assert (T0 : tag_ok (never_cfg_t c crit)) by exact T.
  destruct (run_view_tsd (never_cfg_t c crit) crit t0 off ops Hc0 T0 Hb Htk Hlo Hhi Hmax) as [x0 [ob0 [E0 [[keys [V [K Rg]]] _]]]].
  cbv zeta in V. fold f0 in V.
  assert (Ea : a_run None ops (snd (run x0 ops)) = a).
  { replace x0 with (fst (step (sys0 t0 off) (OStart (never_cfg_t c crit)))) by (rewrite E0; reflexivity).
    assert (Y : years_ok (ts_e c off) t0 (t0 + elapsed ops)) by (split; assumption).
    apply (runs_agree_ix crit (ts_e c off) t0 (t0 + elapsed ops) _ _ _ _ _ _ _ _ _ _ _ _ _ _ _ _
             (tk_run_facts _ _ _ _ _ _ Hcfg Hsfx T Y) (tk_run_facts _ _ _ _ _ _ Hk0 Hsfx T0 Y) ops _ _ None 0); auto.
    - apply start_rel_tk.
    - exact (start_rel_tk (never_cfg_t c crit) crit KNever t0 off).
    - cbn. lia. }
  rewrite Ea in V. exists keys. auto.
Qed.
Print Assumptions timestampsdirect_cleanup_vs_never.

Example tk_vs_never_instance :
  let c := tk_cfg (KLogGz 2 2) "log"%string in
  exists keys, tsd_view (never_cfg_t c (CSize 100)) 0 (wfs (s_w (fst (run (sys0 0 0) (OStart (never_cfg_t c (CSize 100)) :: ext_ops ++ [OStop])))))
                 keys ([bs "a"; bs "b"; bs "c"; bs "d"; bs "e"] ++ [bs "f"])%string /\ keys_ok keys.
Proof.
  intros c. subst c. destruct (tk_bounds (KLogGz 2 2)) as (B1 & B2 & B3).
  pose proof (timestampsdirect_cleanup_vs_never (tk_cfg (KLogGz 2 2) "log"%string) (CSize 100) (KLogGz 2 2) 0 0 ext_ops (tk_cfg_ok _ _) (tk_tag_ok _) (tk_sfx_ok _)
                ext_ops_basic ext_ops_ticks B1 B2 B3) as T.
  cbv zeta in T. rewrite tk_view in T. destruct T as (_ & keys & V & K & _). exists keys. split; [exact V | exact K].
Qed.
