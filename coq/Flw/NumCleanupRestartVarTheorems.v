(* Numbers naming, sequences of runs on one directory, every run with its own cleanup strategy (part 2): the theorems
   numbers_cleanup_restarts_varying (shape and stream), numbers_cleanup_restarts_varying_keep and
   numbers_cleanup_restarts_varying_keep_files (a later run never changes what an earlier run closed).
   Hypothesis on the strategies: each of them keeps at least one closed file (KNever, or limits n + m >= 1).  It is
   necessary for the keep theorems: see reused_number_counterexample in NumCleanupRestartEx.v. *)
Require Import FL.Base.Bytes FL.Fs.Fs FL.Fs.FsFacts FL.Names.FileSpec FL.Flw.Model FL.Flw.NumInv FL.Flw.Run FL.Flw.NumRun
  FL.Flw.NumTheorems FL.Flw.NumCleanupNames FL.Flw.NumCleanupStep FL.Flw.NumCleanupRun FL.Flw.NumRestart
  FL.Flw.NumCleanupKillDir FL.Flw.NumCleanupKillRestart FL.Flw.NumCleanupRestart FL.Flw.NumCleanupRestartTheorems
  FL.Flw.NumCleanupRestartVar.
From Coq Require Import Lia.
Open Scope nat_scope.

Definition vrun_ok (A B : nat) (sp : file_spec) (r : config * list op) : Prop :=
  c_spec (fst r) = sp /\ (exists crit k, numkcfg (fst r) crit k /\ kok A B k) /\ Forall basic_op (snd r).

Lemma numkcfg_fun c crit k crit' k' : numkcfg c crit k -> numkcfg c crit' k' -> k = k'.
Proof. intros (H & _) (H' & _). congruence. Qed.

Lemma runs_ops_one c ops : runs_ops [(c, ops)] = OStart c :: ops ++ [OStop].
Proof. cbn [runs_ops app]. reflexivity. Qed.

Lemma runs_rel_v A B sp : 1 <= A -> sfx_ok sp ->
  forall rs x v lo0 mid0 c0, c_spec c0 = sp -> Forall (vrun_ok A B sp) rs -> IdleV A B c0 x v lo0 mid0 ->
  (N.of_nat (length (closed_of v) + length (runs_ops rs)) <= u32_max)%N ->
  exists v' lo mid, IdleV A B c0 (fst (run x (runs_ops rs))) v' lo mid /\ flat v' = flat v ++ runs_written rs /\ extends v v'
    /\ length (closed_of v') <= length (closed_of v) + length (runs_ops rs) /\ lo0 <= lo /\ mid0 <= mid
    /\ (forall rs0 c ops crit k, rs = rs0 ++ [(c, ops)] -> existsb is_wr ops = true -> numkcfg c crit k ->
          kup k lo mid (length (closed_of v'))).
Proof.
  intros HA Hsfx. induction rs as [|[c ops] rs IH] using rev_ind; intros x v lo0 mid0 c0 Ec0 Hrs Id Hb.
  - exists v, lo0, mid0. split; [exact Id|]. cbn [runs_written runs_ops length]. rewrite app_nil_r.
    split; [reflexivity|]. split; [apply extends_refl|]. split; [lia|]. split; [lia|]. split; [lia|].
    intros rs0 c ops crit k E. destruct rs0; discriminate.
  - apply Forall_app in Hrs. destruct Hrs as [Hrs Hlast].
    inversion Hlast as [|r0 r' [Ec [(crit & k & Hcfg & Hkok) Hops]] _]; subst. cbn [fst snd] in *.
    rewrite runs_ops_app, runs_ops_one, app_length in Hb.
    destruct (IH x v lo0 mid0 c0 eq_refl Hrs Id ltac:(lia)) as (v1 & lo1 & mid1 & Id1 & F1 & X1 & P1 & Hlo1 & Hmid1 & _).
    rewrite runs_ops_app, runs_ops_one, run_app. destruct (run x (runs_ops rs)) as [x1 obs1]. cbn [fst] in *.
    assert (Esp : c_spec c0 = c_spec c) by congruence.
    assert (Hsfx' : sfx_ok (c_spec c)) by (rewrite <- Esp; exact Hsfx).
    assert (Hb1 : (N.of_nat (length (closed_of v1)) <= u32_max)%N) by lia.
    destruct (one_run_v A B c crit k HA Hcfg Hkok Hsfx' x1 v1 lo1 mid1 ops Hb1 Hops (idlev_spec A B c0 c x1 v1 lo1 mid1 Esp Id1))
      as (v2 & lo2 & mid2 & Id2 & F2 & P2 & X2 & Hlo2 & Hmid2 & U2).
    destruct (run x1 (OStart c :: ops ++ [OStop])) as [x2 obs2]. cbn [fst] in *.
    exists v2, lo2, mid2. split; [exact (idlev_spec A B c c0 x2 v2 lo2 mid2 (eq_sym Esp) Id2)|].
    split. { rewrite F2, F1, runs_written_app. cbn [runs_written]. rewrite app_nil_r, app_assoc. reflexivity. }
    split; [exact (extends_trans _ _ _ X1 X2)|].
    split. { rewrite app_length. cbn [length]. rewrite app_length. cbn [length]. cbn [length] in Hb. lia. }
    split; [lia|]. split; [lia|].
    intros rs0 c' ops' crit' k' E Hw Hcfg'. apply app_inj_tail in E. destruct E as [_ E]. injection E as <- <-.
    rewrite <- (numkcfg_fun c crit k crit' k' Hcfg Hcfg'). exact (U2 Hw).
Qed.

Lemma idlev0 A B c t0 off : IdleV A B c (sys0 t0 off) None 0 0.
Proof. cbn. repeat split. Qed.

Lemma idlev_view A B sp c0 x v lo mid : c_spec c0 = sp -> IdleV A B c0 x v lo mid ->
  match v with
  | None => names (wfs (s_w x)) = []
  | Some (cl, cu) => (forall c, c_spec c = sp -> kreader_view c (wfs (s_w x)) cl cu lo mid) /\ WinOK A B lo mid (length cl)
  end.
Proof.
  intros E0 (_ & _ & _ & _ & D). destruct v as [[cl cu]|]; cbn [kdir_view_v] in D; [|tauto].
  destruct D as (_ & V & X). split; [|exact X]. intros c Ec. apply (kreader_view_spec c0 c); [congruence | exact V].
Qed.

(* ------------------------------------------------------------------ the final directory, every run with its own strategy *)
(* Any number of runs on one directory, each with its own criterion, buffer capacity, append flag, history AND CLEANUP
   STRATEGY (KNever, or limits with n + m >= A >= 1 and n >= B).  The final directory is empty, or it has the shape
   kreader_view for a window lo <= mid <= L: rCURRENT, the plain files r<i> (mid <= i < L), the complete archives
   r<i>.gz (lo <= i < mid), nothing else, each with exactly the content closed under its number; closed lists everything
   that was closed, in the order of closing, so the survivors and rCURRENT are a suffix of what was written.
   At least min(L, A) closed files survive, at least min(L, B) of them plain; if the last run has written something, the
   limits of its strategy hold (at most n plain files, at most n + m closed files). *)
Theorem numbers_cleanup_restarts_varying sp A B t0 off rs :
  1 <= A -> sfx_ok sp ->
  (N.of_nat (length (runs_ops rs)) <= u32_max)%N ->
  Forall (fun r => c_spec (fst r) = sp /\ (exists crit k, numkcfg (fst r) crit k /\ kok A B k) /\ Forall basic_op (snd r)) rs ->
  let f := wfs (s_w (fst (run (sys0 t0 off) (runs_ops rs)))) in
  (names f = [] /\ runs_written rs = [])
  \/ exists closed cur lo mid,
       (forall c, c_spec c = sp -> kreader_view c f closed cur lo mid)
       /\ concat closed ++ cur = runs_written rs
       /\ Nat.min (length closed) A <= length closed - lo /\ Nat.min (length closed) B <= length closed - mid
       /\ (forall rs0 c ops crit k n m, rs = rs0 ++ [(c, ops)] -> existsb is_wr ops = true -> numkcfg c crit k ->
             klim k = Some (n, m) -> length closed - mid <= n /\ length closed - lo <= n + m).
Proof.
  intros HA Hsfx Hb Hrs f.
  destruct (runs_rel_v A B sp HA Hsfx rs (sys0 t0 off) None 0 0 (sp_config sp) eq_refl Hrs (idlev0 A B _ t0 off) Hb)
    as (v' & lo & mid & Id & F & _ & _ & _ & _ & U).
  pose proof (idlev_view A B sp (sp_config sp) _ v' lo mid eq_refl Id) as V. fold f in V.
  destruct v' as [[cl cu]|].
  - right. destruct V as [V [X1 X2]]. exists cl, cu, lo, mid. split; [exact V|]. cbn [flat app] in F. split; [exact F|].
    split; [exact X1|]. split; [exact X2|].
    intros rs0 c ops crit k n m E Hw Hcfg Hk. specialize (U rs0 c ops crit k E Hw Hcfg). unfold kup in U. rewrite Hk in U. exact U.
  - left. split; [exact V|]. cbn [flat app] in F. symmetry. exact F.
Qed.
Print Assumptions numbers_cleanup_restarts_varying.

(* ------------------------------------------------------------------ later runs keep what earlier runs closed, every run with its own strategy *)
Theorem numbers_cleanup_restarts_varying_keep sp A B t0 off rs1 rs2 :
  1 <= A -> sfx_ok sp ->
  (N.of_nat (length (runs_ops (rs1 ++ rs2))) <= u32_max)%N ->
  Forall (fun r => c_spec (fst r) = sp /\ (exists crit k, numkcfg (fst r) crit k /\ kok A B k) /\ Forall basic_op (snd r)) (rs1 ++ rs2) ->
  let f1 := wfs (s_w (fst (run (sys0 t0 off) (runs_ops rs1)))) in
  let f2 := wfs (s_w (fst (run (sys0 t0 off) (runs_ops (rs1 ++ rs2))))) in
  (names f1 = [] /\ runs_written rs1 = [])
  \/ exists closed1 cur1 lo1 mid1 closed2 cur2 lo2 mid2 t more,
       (forall c, c_spec c = sp -> kreader_view c f1 closed1 cur1 lo1 mid1)
       /\ concat closed1 ++ cur1 = runs_written rs1
       /\ (forall c, c_spec c = sp -> kreader_view c f2 closed2 cur2 lo2 mid2)
       /\ concat closed2 ++ cur2 = runs_written (rs1 ++ rs2)
       /\ closed2 ++ [cur2] = closed1 ++ [cur1 ++ t] ++ more
       /\ lo1 <= lo2 /\ mid1 <= mid2.
Proof.
  intros HA Hsfx Hb Hrs f1 f2. apply Forall_app in Hrs. destruct Hrs as [Hrs1 Hrs2].
  rewrite runs_ops_app, app_length in Hb.
  assert (Hb1 : (N.of_nat (length (closed_of None) + length (runs_ops rs1)) <= u32_max)%N) by (cbn [closed_of length]; lia).
  destruct (runs_rel_v A B sp HA Hsfx rs1 (sys0 t0 off) None 0 0 (sp_config sp) eq_refl Hrs1 (idlev0 A B _ t0 off) Hb1)
    as (v1 & lo1 & mid1 & Id1 & F1 & _ & P1 & _ & _ & _).
  unfold f1, f2. rewrite runs_ops_app, run_app. destruct (run (sys0 t0 off) (runs_ops rs1)) as [x1 obs1]. cbn [fst] in *.
  assert (Hb2 : (N.of_nat (length (closed_of v1) + length (runs_ops rs2)) <= u32_max)%N) by (cbn [closed_of length] in P1; lia).
  destruct (runs_rel_v A B sp HA Hsfx rs2 x1 v1 lo1 mid1 (sp_config sp) eq_refl Hrs2 Id1 Hb2)
    as (v2 & lo2 & mid2 & Id2 & F2 & X2 & _ & Hlo & Hmid & _).
  destruct (run x1 (runs_ops rs2)) as [x2 obs2]. cbn [fst] in *.
  pose proof (idlev_view A B sp (sp_config sp) _ v1 lo1 mid1 eq_refl Id1) as V1.
  pose proof (idlev_view A B sp (sp_config sp) _ v2 lo2 mid2 eq_refl Id2) as V2.
  destruct v1 as [[cl1 cu1]|].
  - right. cbn [extends] in X2. destruct X2 as [t [more E]].
    destruct v2 as [[cl2 cu2]|]; [|cbn [files_of] in E; destruct cl1; discriminate].
    exists cl1, cu1, lo1, mid1, cl2, cu2, lo2, mid2, t, more. cbn [flat app files_of] in *.
    split; [exact (proj1 V1)|]. split; [exact F1|]. split; [exact (proj1 V2)|].
    split; [rewrite F2, F1, runs_written_app; reflexivity|]. split; [exact E|]. split; assumption.
  - left. split; [exact V1|]. cbn [flat app] in F1. symmetry. exact F1.
Qed.
Print Assumptions numbers_cleanup_restarts_varying_keep.

(* file by file: whatever the reader finds under a number after the first runs, it finds under the same number after all
   runs - unless the cleanup has removed it; an archive does not come back as a plain file *)
Theorem numbers_cleanup_restarts_varying_keep_files sp A B t0 off rs1 rs2 c i d :
  1 <= A -> sfx_ok sp ->
  (N.of_nat (length (runs_ops (rs1 ++ rs2))) <= u32_max)%N ->
  Forall (fun r => c_spec (fst r) = sp /\ (exists crit k, numkcfg (fst r) crit k /\ kok A B k) /\ Forall basic_op (snd r)) (rs1 ++ rs2) ->
  c_spec c = sp ->
  let f1 := wfs (s_w (fst (run (sys0 t0 off) (runs_ops rs1)))) in
  let f2 := wfs (s_w (fst (run (sys0 t0 off) (runs_ops (rs1 ++ rs2))))) in
  reads_at c f1 i d ->
  (reads_at c f2 i d /\ (lookup f1 (rname c i) = None -> lookup f2 (rname c i) = None))
  \/ (lookup f2 (rname c i) = None /\ lookup f2 (gname c i) = None).
Proof.
  intros HA Hsfx Hb Hrs Ec f1 f2 R.
  pose proof (numbers_cleanup_restarts_varying_keep sp A B t0 off rs1 rs2 HA Hsfx Hb Hrs) as T. cbv zeta in T. fold f1 f2 in T.
  destruct T as [[Hn _]|(cl1 & cu1 & lo1 & mid1 & cl2 & cu2 & lo2 & mid2 & t & more & V1 & _ & V2 & _ & E & Hlo & Hmid)].
  - exfalso. unfold reads_at, file_of in R. rewrite !(lookup_empty f1) in R by exact Hn. destruct R as (g & X & _). discriminate.
  - exact (kview_keep_files c f1 f2 cl1 cu1 _ _ cl2 cu2 _ _ t more i d (V1 c Ec) (V2 c Ec) E (fun _ => Hmid) R).
Qed.
Print Assumptions numbers_cleanup_restarts_varying_keep_files.
