(* THE POINT OF THE REPAIR of the cleanup (list_and_cleanup.rs: remove_or_compress_too_old_logfiles_impl(.., o_current)):
   the file that is being written is handed to the cleanup, which skips it - it is no longer protected by its POSITION in
   the listing (first limit at least 1, the file expected at index 0), which fails when the clock is set back.

   1. cleanup_spares_current: for EVERY world (fault oracle, kill counter, whatever the directory holds, whatever order the
      listing has, whatever the limits are) and cur = Some p: a file p that exists before cleanup_impl exists after it, with
      the same inode, unchanged (same content, same kind: a plain file stays plain, it is not compressed).
      Hypotheses: the file system is well-formed, and p does not end in ".gz" - that one is NECESSARY
      (Example archive_name_not_spared: remove_redundant, which runs before the loop, does not know about cur).
   2. mount_next_spares_new_file: one rotation of a writer with TimestampsDirect naming and a cleanup strategy, any
      clock.
   3. timestampsdirect_current_never_cleaned: every history of a TimestampsDirect writer with a cleanup strategy, WITHOUT
      tick_ok - the clock may be set back -: after every operation the file the writer writes to exists, is plain, and holds
      exactly what was written to it since it was opened. *)
Require Import FL.Base.Bytes FL.Base.BytesFacts FL.Base.PathName FL.Fs.Fs FL.Fs.FsFacts FL.Time.TsFormat
  FL.Names.FileSpec FL.Names.FamilyFacts FL.Flw.Model FL.Flw.ModelFacts FL.Flw.NumFs
  FL.Flw.NumInv FL.Flw.Run FL.Flw.RunFacts FL.Flw.NumRun FL.Flw.NumListing FL.Flw.CleanupFacts FL.Flw.CleanupCur
  FL.Flw.NumCleanupNames FL.Flw.NumCleanupStep FL.Flw.NumCleanupRun FL.Flw.NumDInv
  FL.Flw.TsTime FL.Flw.TsNames FL.Flw.TsInv FL.Flw.TsRun FL.Flw.TsTheorems
  FL.Flw.ListingExact FL.Flw.TsCleanupNames FL.Flw.TsdCleanupRun FL.Flw.TsdCleanup FL.Flw.NumRestart.
From Coq Require Import ZifyN ZifyNat ZifyBool.
Open Scope nat_scope.

(* ================================================================== 1. cleanup_impl, every world *)
(* the name p means the inode i, which holds fl; the file system is well-formed *)
Definition holds (p : bytes) (i : nat) (fl : file) (f : fs) : Prop :=
  fs_wf f /\ lookup f p = Some i /\ inode f i = fl.

Lemma unlink_holds p i fl f n : n <> p -> holds p i fl f -> holds p i fl (unlink f n).
Proof.
  intros Hn (W & L & I). destruct (unlink_spec f n) as (UI & _ & UO).
  split; [apply wf_unlink; exact W|]. split; [rewrite UO by congruence; exact L|]. unfold inode. rewrite UI. exact I.
Qed.

Lemma p_remove_holds p i fl w n : n <> p -> holds p i fl (wfs w) -> holds p i fl (wfs (snd (p_remove w n))).
Proof.
  intros Hn H. unfold p_remove. pose proof (tick_wfs w) as T. destruct (tick w) as [flt w1]. cbn [snd] in T.
  rewrite <- T in H. destruct flt; [exact H|]. destruct (lookup (wfs w1) n); [|exact H].
  cbn [snd]. apply (effect_inv (holds p i fl)); [exact H|]. apply unlink_holds. exact Hn.
Qed.

Lemma inode_set_gz_other f ino st d j : j <> ino -> inode (set_gz f ino st d) j = inode f j.
Proof.
  intros H. unfold inode, set_gz. cbn [inodes]. destruct (Nat.lt_ge_cases ino (length (inodes f))) as [Hl|Hl].
  - rewrite nth_upd by exact Hl. destruct (Nat.eqb_spec j ino); [congruence | reflexivity].
  - rewrite nth_upd_out by exact Hl. reflexivity.
Qed.

Lemma set_gz_holds p i fl f ino st d : i <> ino -> holds p i fl f -> holds p i fl (set_gz f ino st d).
Proof.
  intros Hne (W & L & I). split; [apply wf_set_gz; exact W|]. split; [exact L|].
  rewrite inode_set_gz_other by exact Hne. exact I.
Qed.

(* opening (create, truncate) another name *)
Lemma open_trunc_holds p i fl f a gz now : a <> p -> holds p i fl f ->
  holds p i fl (fst (open_trunc f a gz now)) /\ i <> snd (open_trunc f a gz now).
Proof.
  intros Ha (W & L & I). pose proof (open_trunc_spec f a gz now W) as S.
  destruct (open_trunc f a gz now) as [f' j]. cbn [fst snd].
  destruct S as (W' & La & Hj & _ & Hlen & Lo & Io & Jnew & Jold).
  pose proof (wf_bound _ W _ _ L) as Hi.
  assert (Hij : i <> j).
  { intros <-. destruct (lookup f a) as [k|] eqn:Ea.
    - specialize (Jold k eq_refl). subst k. apply Ha. exact (wf_inj _ W _ _ _ Ea L).
    - specialize (Jnew eq_refl). lia. }
  split; [|exact Hij]. split; [exact W'|]. split; [rewrite Lo by congruence; exact L|].
  rewrite Io by assumption. exact I.
Qed.

(* compress_file of another file, whose archive name is not p *)
Lemma compress_file_holds p i fl w n : n <> p -> gz_name n <> p -> holds p i fl (wfs w) ->
  holds p i fl (wfs (snd (compress_file w n))).
Proof.
  intros Hn Hg H. unfold compress_file.
  pose proof (tick_wfs w) as T. destruct (tick w) as [flt1 w1]. cbn [snd] in T. rewrite <- T in H. clear T.
  destruct flt1; [exact H|].
  destruct (match file_of (wfs w1) (gz_name n) with Some fl0 => fdir fl0 | None => false end); [exact H|].
  destruct (open_trunc_holds p i fl (wfs w1) (gz_name n) 2%N (wnow w1) Hg H) as [H2 Hino].
  set (ino := snd (open_trunc (wfs w1) (gz_name n) 2%N (wnow w1))) in *.
  assert (H2' : holds p i fl (wfs (effect w1 (fun f => fst (open_trunc f (gz_name n) 2%N (wnow w1)))))).
  { apply (effect_inv (holds p i fl)); [exact H|]. intros _. exact H2. }
  set (w2 := effect w1 (fun f => fst (open_trunc f (gz_name n) 2%N (wnow w1)))) in *.
  assert (Dr : forall w' d, holds p i fl (wfs w') -> holds p i fl (wfs (effect w' (fun f => set_gz f ino 1%N d)))).
  { intros w' d H'. apply (effect_inv (holds p i fl)); [exact H'|]. apply set_gz_holds. exact Hino. }
  pose proof (tick_wfs w2) as T. destruct (tick w2) as [flt2 w3]. cbn [snd] in T. rewrite <- T in H2'. clear T.
  destruct flt2; [cbn [snd]; apply Dr; exact H2'|].
  destruct (lookup (wfs w3) n) as [src|]; [|cbn [snd]; apply Dr; exact H2'].
  pose proof (tick_wfs w3) as T. destruct (tick w3) as [flt3 w4]. cbn [snd] in T. rewrite <- T in H2'. clear T.
  destruct flt3; [cbn [snd]; apply Dr; exact H2'|].
  assert (H5 : holds p i fl (wfs (effect w4 (fun f => f)))) by (apply (effect_inv (holds p i fl)); auto).
  set (w5 := effect w4 (fun f => f)) in *.
  pose proof (tick_wfs w5) as T. destruct (tick w5) as [flt4 w6]. cbn [snd] in T. rewrite <- T in H5. clear T.
  destruct flt4; [cbn [snd]; apply Dr; exact H5|].
  apply p_remove_holds; [exact Hn|]. apply Dr. exact H5.
Qed.

(* the loop: the entry equal to cur is skipped; no other entry has the archive name p *)
Lemma cleanup_loop_holds p i fl ll total : forall files w idx,
  (forall n, In n files -> gz_name n <> p) -> holds p i fl (wfs w) ->
  holds p i fl (wfs (snd (cleanup_loop w files idx ll total (Some p)))).
Proof.
  induction files as [|n r IH]; intros w idx Hg H; [exact H|].
  assert (Hr : forall m, In m r -> gz_name m <> p) by (intros m Hm; apply Hg; right; exact Hm).
  rewrite cleanup_loop_consc. unfold actc. destruct (is_cur (Some p) n) eqn:B; [apply IH; assumption|].
  assert (Hn : n <> p).
  { intros ->. unfold is_cur in B. rewrite beq_refl in B. discriminate. }
  destruct (act ll total idx n).
  - apply IH; assumption.
  - pose proof (compress_file_holds p i fl w n Hn (Hg n (or_introl eq_refl)) H) as H1.
    destruct (compress_file w n) as [ok w1]. cbn [snd] in H1. destruct ok; [apply IH; assumption | exact H1].
  - pose proof (p_remove_holds p i fl w n Hn H) as H1.
    destruct (p_remove w n) as [ok w1]. cbn [snd] in H1. destruct ok; [apply IH; assumption | exact H1].
Qed.

(* the redundant archives are removed before the loop - WITHOUT regard to cur: p must not be one of them *)
Lemma remove_redundant_holds p i fl : forall red w files, ~ In p red -> holds p i fl (wfs w) ->
  holds p i fl (wfs (snd (fst (remove_redundant w red files)))).
Proof.
  induction red as [|n r IH]; intros w files Hp H; [exact H|]. cbn [remove_redundant].
  assert (Hn : n <> p) by (intros ->; apply Hp; left; reflexivity).
  pose proof (p_remove_holds p i fl w n Hn H) as H1. destruct (p_remove w n) as [ok w1]. cbn [snd] in H1.
  destruct ok; [|exact H1]. apply IH; [|exact H1]. intros Hin. apply Hp. right; exact Hin.
Qed.

(* "the name does not end in .gz", as in the statements about the listing (Properties/C07.v) *)
Lemma no_gz_not_archive_name p n : strip_suffix (dot :: gz_sfx) p = None -> gz_name n <> p.
Proof. intros H E. rewrite <- E, gz_name_app in H. unfold dot_gz in H. rewrite strip_suffix_app in H. discriminate. Qed.
Lemma no_gz_not_redundant p files : strip_suffix (dot :: gz_sfx) p = None -> ~ In p (redundant_gz files).
Proof.
  intros H Hin. unfold redundant_gz in Hin. apply filter_In in Hin. destruct Hin as [_ Hb].
  apply andb_prop in Hb. destruct Hb as [Hb _]. apply ext_is_gz_suffix in Hb. destruct Hb as [st E].
  rewrite E in H. unfold dot_gz in H. rewrite strip_suffix_app in H. discriminate.
Qed.

Lemma cleanup_body_holds p i fl w files n m : strip_suffix (dot :: gz_sfx) p = None -> holds p i fl (wfs w) ->
  holds p i fl (wfs (snd (cleanup_body w files n m (Some p)))).
Proof.
  intros Hp H. unfold cleanup_body.
  pose proof (remove_redundant_holds p i _ (redundant_gz files) w files (no_gz_not_redundant p files Hp) H) as H1.
  destruct (remove_redundant w (redundant_gz files) files) as [[ok0 w1] files']. cbn [fst snd] in H1.
  destruct ok0; cbn [negb]; [|exact H1].
  pose proof (cleanup_loop_holds p i _ n (n + m) files' w1 0 (fun x _ => no_gz_not_archive_name p x Hp) H1) as H2.
  destruct (cleanup_loop w1 files' 0 n (n + m) (Some p)) as [ok w2]. exact H2.
Qed.

(* THE THEOREM.  No hypothesis about the clock, the order or the content of the listing, the limits, the fault oracle or
   the kill counter; nothing about the result either (Ok, Err or Panic).  same inode, same file: the content is the same,
   and so is the kind - a plain file is not compressed *)
Theorem cleanup_spares_current c w k flt p i r w' :
  fs_wf (wfs w) -> strip_suffix (dot :: gz_sfx) p = None ->
  lookup (wfs w) p = Some i ->
  cleanup_impl c w k flt (Some p) = (r, w') ->
  fs_wf (wfs w') /\ lookup (wfs w') p = Some i /\ inode (wfs w') i = inode (wfs w) i.
Proof.
  intros W Hp L E.
  assert (H : holds p i (inode (wfs w) i) (wfs w)) by (split; [exact W | split; [exact L | reflexivity]]).
  enough (X : holds p i (inode (wfs w) i) (wfs (snd (cleanup_impl c w k flt (Some p))))) by (rewrite E in X; exact X).
  clear E. generalize dependent (inode (wfs w) i). intros fl0 H. rewrite cleanup_impl_klim.
  destruct (klim k) as [[n m]|]; [|exact H].
  pose proof (tick_wfs w) as T. destruct (tick w) as [fl w1]. cbn [snd] in T. rewrite <- T in H.
  destruct fl; [exact H|].
  destruct (list_log_gz (woff w1) (c_spec c) (fixed_of c w1) (wfs w1) flt) as [files|]; [|exact H].
  apply cleanup_body_holds; assumption.
Qed.
Print Assumptions cleanup_spares_current.

(* a plain file stays a plain file with the same content *)
Corollary cleanup_spares_current_plain c w k flt p i r w' :
  fs_wf (wfs w) -> strip_suffix (dot :: gz_sfx) p = None ->
  lookup (wfs w) p = Some i -> plain (inode (wfs w) i) ->
  cleanup_impl c w k flt (Some p) = (r, w') ->
  lookup (wfs w') p = Some i /\ plain (inode (wfs w') i) /\ content (wfs w') i = content (wfs w) i.
Proof.
  intros W Hp L P E. destruct (cleanup_spares_current c w k flt p i r w' W Hp L E) as (_ & L' & I').
  split; [exact L'|]. unfold content. rewrite I'. split; [exact P | reflexivity].
Qed.

(* the same through cleanup_or_queue (the request to the cleanup thread carries cur) *)
Theorem cleanup_or_queue_spares_current c w bg k flt p i r w' :
  fs_wf (wfs w) -> strip_suffix (dot :: gz_sfx) p = None ->
  lookup (wfs w) p = Some i ->
  cleanup_or_queue c w bg k flt (Some p) = (r, w') ->
  fs_wf (wfs w') /\ lookup (wfs w') p = Some i /\ inode (wfs w') i = inode (wfs w) i.
Proof.
  intros W Hp L. unfold cleanup_or_queue.
  destruct bg; [|apply cleanup_spares_current; assumption].
  assert (G : forall K, (if Nat.eqb (wacts w) 1 then (Ok tt, w) else
                         match cleanup_impl c w K flt (Some p) with
                         | (Panic, w1) => (Ok tt, set_acts w1 1)
                         | (_, w1) => (Ok tt, w1)
                         end) = (r, w') ->
                        fs_wf (wfs w') /\ lookup (wfs w') p = Some i /\ inode (wfs w') i = inode (wfs w) i).
  { intros K. destruct (Nat.eqb (wacts w) 1); [intros E; injection E as _ <-; auto|].
    destruct (cleanup_impl c w K flt (Some p)) as [rc w1] eqn:EC.
    destruct (cleanup_spares_current c w K flt p i rc w1 W Hp L EC) as (W1 & L1 & I1).
    destruct rc; intros E; injection E as _ <-; cbn [set_acts wfs]; auto. }
  destruct k as [|a|b|a b]; [intros E; injection E as _ <-; auto | apply G | apply G | apply G].
Qed.

(* ================================================================== 2. one rotation *)
(* ---- without faults and kills, whatever the result: the environment stays ---- *)
Definition env2 (w w' : world) : Prop := quiet w' /\ wnow w' = wnow w /\ woff w' = woff w.
Lemma env2_refl w : quiet w -> env2 w w.
Proof. intros Q. split; [exact Q | split; reflexivity]. Qed.
Lemma env2_trans a b c : env2 a b -> env2 b c -> env2 a c.
Proof. intros (Q1 & A1 & B1) (Q2 & A2 & B2). split; [exact Q2 | split; congruence]. Qed.
Lemma same_env_env2 w w' : same_env w w' -> env2 w w'.
Proof. intros (Q & A & B & _). split; [exact Q | split; assumption]. Qed.
Lemma effect_env2 w g : quiet w -> env2 w (effect w g).
Proof. intros Q. apply same_env_env2. apply effect_quiet. exact Q. Qed.
Lemma report_env2 e w : quiet w -> env2 w (report e w) /\ wfs (report e w) = wfs w.
Proof. intros [F K]. unfold report. rewrite K. cbn. repeat split; auto. Qed.

Lemma p_remove_env2 w n : quiet w -> env2 w (snd (p_remove w n)).
Proof.
  intros Q. unfold p_remove. rewrite tick_quiet by exact Q.
  destruct (lookup (wfs w) n); cbn [snd]; [apply effect_env2; exact Q | apply env2_refl; exact Q].
Qed.

Lemma compress_file_env2 w n : quiet w -> env2 w (snd (compress_file w n)).
Proof.
  intros Q. unfold compress_file. rewrite tick_quiet by exact Q. cbv beta iota zeta.
  destruct (match file_of (wfs w) (gz_name n) with Some fl => fdir fl | None => false end); [apply env2_refl; exact Q|].
  pose proof (effect_env2 w (fun f => fst (open_trunc f (gz_name n) 2%N (wnow w))) Q) as E2.
  set (w2 := effect w (fun f => fst (open_trunc f (gz_name n) 2%N (wnow w)))) in *.
  pose proof (proj1 E2) as Q2. rewrite (tick_quiet w2 Q2). cbv beta iota zeta.
  set (ino := snd (open_trunc (wfs w) (gz_name n) 2%N (wnow w))).
  assert (Dr : forall w' d, env2 w w' -> env2 w (effect w' (fun f => set_gz f ino 1%N d))).
  { intros w' d E. eapply env2_trans; [exact E | apply effect_env2; apply E]. }
  destruct (lookup (wfs w2) n) as [src|]; [|cbn [snd]; apply Dr; exact E2].
  rewrite (tick_quiet w2 Q2). cbv beta iota zeta.
  assert (E5 : env2 w (effect w2 (fun f => f))) by (eapply env2_trans; [exact E2 | apply effect_env2; exact Q2]).
  set (w5 := effect w2 (fun f => f)) in *. rewrite (tick_quiet w5 (proj1 E5)). cbv beta iota zeta.
  pose proof (Dr w5 (content (wfs w2) src) E5) as E7.
  eapply env2_trans; [exact E7 | apply p_remove_env2; apply E7].
Qed.

Lemma cleanup_loop_env2 ll total cur : forall files w idx, quiet w -> env2 w (snd (cleanup_loop w files idx ll total cur)).
Proof.
  induction files as [|n r IH]; intros w idx Q; [apply env2_refl; exact Q|].
  rewrite cleanup_loop_consc. destruct (actc cur ll total idx n).
  - apply IH. exact Q.
  - pose proof (compress_file_env2 w n Q) as E1. destruct (compress_file w n) as [ok w1]. cbn [snd] in E1.
    destruct ok; [|exact E1]. eapply env2_trans; [exact E1 | apply IH; apply E1].
  - pose proof (p_remove_env2 w n Q) as E1. destruct (p_remove w n) as [ok w1]. cbn [snd] in E1.
    destruct ok; [|exact E1]. eapply env2_trans; [exact E1 | apply IH; apply E1].
Qed.

Lemma remove_redundant_env2 : forall red w files, quiet w -> env2 w (snd (fst (remove_redundant w red files))).
Proof.
  induction red as [|n r IH]; intros w files Q; [apply env2_refl; exact Q|]. cbn [remove_redundant].
  pose proof (p_remove_env2 w n Q) as E1. destruct (p_remove w n) as [ok w1]. cbn [snd] in E1.
  destruct ok; [|exact E1]. eapply env2_trans; [exact E1 | apply IH; apply E1].
Qed.

Lemma cleanup_body_env2 w files n m cur : quiet w -> env2 w (snd (cleanup_body w files n m cur)).
Proof.
  intros Q. unfold cleanup_body.
  pose proof (remove_redundant_env2 (redundant_gz files) w files Q) as E1.
  destruct (remove_redundant w (redundant_gz files) files) as [[ok0 w1] files']. cbn [fst snd] in E1.
  destruct ok0; cbn [negb]; [|exact E1].
  pose proof (cleanup_loop_env2 n (n + m) cur files' w1 0 (proj1 E1)) as E2.
  destruct (cleanup_loop w1 files' 0 n (n + m) cur) as [ok w2]. cbn [snd] in *. eapply env2_trans; eassumption.
Qed.

Lemma cleanup_impl_env2 c w k flt cur : quiet w -> env2 w (snd (cleanup_impl c w k flt cur)).
Proof.
  intros Q. rewrite cleanup_impl_klim. destruct (klim k) as [[n m]|]; [|apply env2_refl; exact Q].
  rewrite tick_quiet by exact Q.
  destruct (list_log_gz (woff w) (c_spec c) (fixed_of c w) (wfs w) flt) as [files|]; [|apply env2_refl; exact Q].
  apply cleanup_body_env2. exact Q.
Qed.

(* ---- the name that collision_free_infix answers with does not exist (as a file) ---- *)
(* the answer of collision_free_infix for any infix x: x itself when the name is free, else x with a restart number above
   every restart number among the regular files that pass the filter "infix = x".  (x stays a variable: with a formatted
   time stamp in its place every step that looks at the head of x ++ .. unfolds the formatter.) *)
Lemma collision_free_infix_some off sp fixed f x r :
  collision_free_infix off sp fixed f x = Some (Some r) ->
  (r = x /\ lookup f (as_name sp fixed (Some x)) = None) \/
  exists k, r = x ++ restart_tag ++ pad_left 4 48%N (dec k) /\ (k <= usize_max)%N /\
    forall n j, In n (related_files f (fsfx sp) fixed) -> qf off (fsfx sp) fixed (IFEq x) (fsfx sp) n = true ->
      contains (x ++ restart_tag) n = true -> restart_number x n = Some j -> (j < k)%N.
Proof.
  unfold collision_free_infix. rewrite !filter_files_total. cbv zeta.
  set (rel := related_files f (fsfx sp) fixed).
  set (unc := filter (qf off (fsfx sp) fixed (IFEq x) (fsfx sp)) rel).
  set (sibs := filter (fun n => contains (x ++ restart_tag) n) (unc ++ _)).
  assert (Sib : forall n j, In n rel -> qf off (fsfx sp) fixed (IFEq x) (fsfx sp) n = true ->
      contains (x ++ restart_tag) n = true -> restart_number x n = Some j ->
      In j (filter_map_opt (restart_number x) sibs)).
  { intros n j Hn Hq Hc Hj. apply filter_map_opt_in. exists n. split; [|exact Hj].
    apply filter_In. split; [|exact Hc]. apply in_or_app. left. apply filter_In. split; assumption. }
  clearbody sibs rel. clear unc.
  match goal with |- (if ?B then _ else _) = _ -> _ => destruct B eqn:EB end.
  - pose proof (max_opt_spec (filter_map_opt (restart_number x) sibs)) as MS.
    destruct (max_opt (filter_map_opt (restart_number x) sibs)) as [k|].
    + destruct (N.ltb_spec k usize_max) as [Hk|Hk]; [|discriminate]. intros H. injection H as <-.
      right. exists (k + 1)%N. split; [reflexivity|]. split; [lia|]. intros n j Hn Hq Hc Hj.
      destruct MS as [_ MS]. specialize (MS j (Sib n j Hn Hq Hc Hj)). lia.
    + intros H. injection H as <-. right. exists 0%N. split; [reflexivity|]. split; [discriminate|].
      intros n j Hn Hq Hc Hj. pose proof (Sib n j Hn Hq Hc Hj) as X. rewrite MS in X. destruct X.
  - intros H. injection H as <-. left. split; [reflexivity|].
    apply orb_false_iff in EB. destruct EB as [EB _]. apply orb_false_iff in EB. destruct EB as [EB _].
    destruct (lookup f (as_name sp fixed (Some x))); [discriminate | reflexivity].
Qed.

Lemma infix_of_restart e ts k : infix_of e (ts, S (N.to_nat k)) = tsx e ts ++ restart_tag ++ pad_left 4 48%N (dec k).
Proof. unfold infix_of. cbn [fst snd]. rewrite N2Nat.id. reflexivity. Qed.

Theorem collision_free_infix_fresh c e off f ts i :
  tag_ok c -> in_years e ts ->
  collision_free_infix off (c_spec c) (fixed0 c) f (tsx e ts) = Some (Some i) ->
  exists m, i = infix_of e (ts, m) /\ is_reg_file f (kname c e (ts, m)) = false.
Proof.
  intros T Hts H. apply collision_free_infix_some in H. destruct H as [[-> Free] | (k & -> & Hk & Sib)].
  - exists 0. split; [reflexivity|].
    change (as_name (c_spec c) (fixed0 c) (Some (tsx e ts))) with (kname c e (ts, 0)) in Free.
    apply is_reg_file_missing. exact Free.
  - exists (S (N.to_nat k)). rewrite infix_of_restart. split; [reflexivity|].
    destruct (is_reg_file f (kname c e (ts, S (N.to_nat k)))) eqn:Er; [exfalso | reflexivity].
    enough (k < k)%N by lia. apply (Sib (kname c e (ts, S (N.to_nat k)))).
    + apply related_files_in. split; [|split; [exact Er|]].
      * apply dir_names_lookup. unfold is_reg_file, file_of in Er.
        destruct (lookup f (kname c e (ts, S (N.to_nat k)))) as [j|]; [eauto | discriminate].
      * rewrite kname_shape by exact Hts. apply is_prefix_under.
    + apply qf_eq_lower. exact Hts.
    + apply kname_restart_contains; [apply T | exact Hts].
    + rewrite <- (N2Nat.id k) at 2. apply restart_number_kname; [apply T | exact Hts | lia].
Qed.
Print Assumptions collision_free_infix_fresh.

(* the writer wr writes to the file named path: it exists under this name with the inode of the writer, it is plain, and
   with what the writer still buffers it holds g; the name does not end in .gz *)
Record CurF (c : config) (w : world) (wr : writer) (path : bytes) (g : bytes) : Prop := {
  cf_nogz : strip_suffix (dot :: gz_sfx) path = None;
  cf_cur : lookup (wfs w) path = Some (wino wr);
  cf_plain : plain (inode (wfs w) (wino wr));
  cf_data : cur_view w wr = g;
  cf_wr : wr_ok wr;
  cf_cap : wcap wr = c_cap c }.

Lemma eoff_env2 c w w' : env2 w w' -> eoff c w' = eoff c w.
Proof. intros (_ & _ & H). unfold eoff. rewrite H. reflexivity. Qed.

Lemma curf_same_fs c w w' wr path g : wfs w' = wfs w -> CurF c w wr path g -> CurF c w' wr path g.
Proof. intros F [A B C D E G]. constructor; auto; unfold cur_view in *; rewrite F; assumption. Qed.

Lemma p_open_dir_quiet w name app j : quiet w -> lookup (wfs w) name = Some j -> fdir (inode (wfs w) j) = true ->
  p_open w name app = (None, w).
Proof. intros Q L D. unfold p_open. rewrite tick_quiet by exact Q. unfold file_of. rewrite L, D. reflexivity. Qed.

(* THE ROTATION of a writer with TimestampsDirect naming and a cleanup strategy, at ANY time of the clock (it may have been set
   back: nothing is assumed about the time stamps of the files in the directory), whatever the result is (Ok, Err, Panic):
   - either the writer keeps its file (no rotation was necessary, or the rotation failed before the new file was opened):
     nothing has happened to the file;
   - or the writer has a NEW file, under a name that did not exist: after the cleanup - which ran with this file in its
     listing, at whatever position - the file exists, is plain and empty. *)
Theorem mount_next_spares_new_file c crit k e w rs wr path force g r w' st' :
  tsdkcfg c crit k -> tag_ok c -> sfx_ok (c_spec c) -> in_years e (wnow w) ->
  quiet w -> fs_wf (wfs w) -> eoff c w = e ->
  (exists ts, rs_naming rs = NSTs ts None std_fmt) -> rs_cleanup rs = k -> rs_bg rs = false ->
  CurF c w wr path g ->
  mount_next c w (Active (Some rs) wr path) force = (r, w', st') ->
  env2 w w' /\ fs_wf (wfs w') /\
  exists rs' wr' path', st' = Active (Some rs') wr' path'
    /\ (exists ts, rs_naming rs' = NSTs ts None std_fmt) /\ rs_cleanup rs' = k /\ rs_bg rs' = false
    /\ ((wr' = wr /\ path' = path /\ CurF c w' wr path g)
        \/ (path' <> path /\ lookup (wfs w) path' = None /\ CurF c w' wr' path' [])).
Proof.
  intros Hcfg T Hsfx Y Q W Hoff [ts Ens] Ek Eb F. pose proof Hcfg as (Hrot & Hts & Hlink & Has & Hbg).
  destruct rs as [ns roll kc bg]. cbn [rs_naming rs_cleanup rs_bg] in Ens, Ek, Eb. subst ns kc bg.
  unfold mount_next. cbn [rs_naming rs_roll rs_cleanup rs_bg].
  (* the writer keeps its file, the world is w *)
  assert (Keep : forall ns', (exists ts', ns' = NSTs ts' None std_fmt) ->
    env2 w w /\ fs_wf (wfs w) /\
    exists rs' wr' path',
      Active (Some {| rs_naming := ns'; rs_roll := roll; rs_cleanup := k; rs_bg := false |}) wr path = Active (Some rs') wr' path'
      /\ (exists ts0, rs_naming rs' = NSTs ts0 None std_fmt) /\ rs_cleanup rs' = k /\ rs_bg rs' = false
      /\ ((wr' = wr /\ path' = path /\ CurF c w wr path g)
          \/ (path' <> path /\ lookup (wfs w) path' = None /\ CurF c w wr' path' []))).
  { intros ns' [ts' ->]. split; [apply env2_refl; exact Q|]. split; [exact W|].
    eexists _, wr, path. split; [reflexivity|]. cbn [rs_naming rs_cleanup rs_bg].
    split; [eauto|]. split; [reflexivity|]. split; [reflexivity|]. left. auto. }
  destruct (force || rotation_necessary w roll).
  2:{ intros E. injection E as <- <- <-. apply Keep. eauto. }
  unfold collision_free. rewrite !tick_quiet by exact Q.
  rewrite (fixed_of_fixed0 c w Hts), infix_from_ts_tsx, Hoff.
  destruct (collision_free_infix (woff w) (c_spec c) (fixed0 c) (wfs w) (tsx e (wnow w))) as [[i|]|] eqn:CF.
  2:{ intros E. injection E as <- <- <-. apply Keep. eauto. }
  2:{ intros E. injection E as <- <- <-. apply Keep. eauto. }
  destruct (collision_free_infix_fresh c e (woff w) (wfs w) (wnow w) i T Y CF) as (m & -> & Hreg).
  set (kn := (wnow w, m)) in *.
  assert (Yk : in_years e (fst kn)) by exact Y.
  unfold open_log_file. rewrite (name_of_fixed c w) by exact Hts.
  change (as_name (c_spec c) (fixed0 c) (Some (infix_of e kn))) with (kname c e kn).
  destruct (lookup (wfs w) (kname c e kn)) as [j|] eqn:Lk.
  - (* a directory of that name: the file cannot be opened *)
    assert (D : fdir (inode (wfs w) j) = true).
    { unfold is_reg_file, file_of in Hreg. rewrite Lk in Hreg. destruct (fdir (inode (wfs w) j)); [reflexivity | discriminate]. }
    unfold do_symlink. rewrite Hlink. rewrite (p_open_dir_quiet w _ _ j Q Lk D).
    intros E. injection E as <- <- <-. apply Keep. eauto.
  - destruct (open_fresh_quiet c w (kname c e kn) Q Hlink Lk) as [w2 [Eop [F2 S2]]]. rewrite Eop.
    unfold w_drop. destruct (w_flush_quiet w2 wr (proj1 S2)) as [w3 [Efl [F3 S3]]]. rewrite Efl. cbn [fst snd].
    change (w_flush w3 {| wino := wino wr; wpend := []; wcap := wcap wr |})
      with (true, w3, {| wino := wino wr; wpend := []; wcap := wcap wr |}). cbn [fst snd].
    unfold cleanup_or_queue. cbn [ns_filter ns_writes_direct].
    destruct F as [Fng Fc Fp Fd Fw Fcap].
    pose proof (wf_bound _ W _ _ Fc) as Hold.
    pose proof (direct_fs_spec (wfs w) (kname c e kn) (wino wr) (wpend wr) (wnow w) W Hold Lk) as R.
    cbn zeta in R. destruct R as (W3 & Hnew & L3t & L3o & Inew & Iold & Ioth).
    set (new := snd (create_file (wfs w) (kname c e kn) 0%N (wnow w))) in *.
    assert (F3' : wfs w3 = append_ino (fst (create_file (wfs w) (kname c e kn) 0%N (wnow w))) (wino wr) (wpend wr))
      by (rewrite F3, F2; reflexivity).
    rewrite <- F3' in W3, L3t, L3o, Inew, Iold, Ioth.
    assert (E3 : env2 w w3) by (apply same_env_env2; eapply same_env_trans; eassumption).
    pose proof (kname_no_gz c e kn Hsfx Yk) as Hng.
    destruct (cleanup_impl c w3 k (IFTs std_fmt) (Some (kname c e kn))) as [rc w4] eqn:EC.
    destruct (cleanup_spares_current c w3 k (IFTs std_fmt) (kname c e kn) new rc w4 W3 Hng L3t EC) as (W4 & L4 & I4).
    pose proof (cleanup_impl_env2 c w3 k (IFTs std_fmt) (Some (kname c e kn)) (proj1 E3)) as E4. rewrite EC in E4. cbn [snd] in E4.
    intros E. injection E as <- <- <-.
    split; [eapply env2_trans; eassumption|]. split; [exact W4|].
    eexists _, {| wino := new; wpend := []; wcap := c_cap c |}, (kname c e kn). split; [reflexivity|].
    cbn [rs_naming rs_cleanup rs_bg]. split; [eauto|]. split; [reflexivity|]. split; [reflexivity|].
    right. split; [intros X; rewrite X in Lk; congruence|]. split; [exact Lk|].
    constructor; cbn [wino wpend wcap].
    + exact Hng.
    + exact L4.
    + rewrite I4, Inew. split; reflexivity.
    + unfold cur_view, content. cbn [wino wpend]. rewrite I4, Inew. reflexivity.
    + unfold wr_ok. cbn [wcap wpend]. destruct (c_cap c); [cbn; lia | reflexivity].
    + reflexivity.
Qed.
Print Assumptions mount_next_spares_new_file.

(* ================================================================== 3. every history, any clock *)
(* the file of the writer: its name and its inode *)
Definition wfile (st : inner) : option (bytes * nat) :=
  match st with Active _ wr path => Some (path, wino wr) | Initial => None end.
Definition writer_file (x : sys) : option (bytes * nat) :=
  match s_flw x with Some s => wfile (f_inner s) | None => None end.
Definition same_file (a b : option (bytes * nat)) : bool :=
  match a, b with Some (p, i), Some (q, j) => beq p q && Nat.eqb i j | _, _ => false end.

Lemma same_file_refl p i : same_file (Some (p, i)) (Some (p, i)) = true.
Proof. cbn [same_file]. rewrite beq_refl, Nat.eqb_refl. reflexivity. Qed.
Lemma same_file_other p i q j : q <> p -> same_file (Some (p, i)) (Some (q, j)) = false.
Proof. intros H. cbn [same_file]. rewrite beq_neq by congruence. reflexivity. Qed.

(* the state of a TimestampsDirect writer with the strategy k: it has no file yet (and the directory is empty), or its file
   satisfies CurF with g *)
Definition InnerInv (c : config) (k : cleanup) (w : world) (st : inner) (g : bytes) : Prop :=
  match st with
  | Initial => names (wfs w) = [] /\ inodes (wfs w) = [] /\ g = []
  | Active (Some rs) wr path =>
    (exists ts, rs_naming rs = NSTs ts None std_fmt) /\ rs_cleanup rs = k /\ rs_bg rs = false /\ CurF c w wr path g
  | Active None _ _ => False
  end.

Lemma innerinv_same_fs c k w w' st g : wfs w' = wfs w -> InnerInv c k w st g -> InnerInv c k w' st g.
Proof.
  intros F. destruct st as [|[rs|] wr path]; cbn [InnerInv]; [rewrite F; auto | | auto].
  intros (A & B & C & D). split; [exact A|]. split; [exact B|]. split; [exact C|]. eapply curf_same_fs; eassumption.
Qed.

(* appending to the file of the writer *)
Lemma curf_append c w w' wr wr' path g x flushed :
  fs_wf (wfs w) -> CurF c w wr path g -> wfs w' = append_ino (wfs w) (wino wr) flushed ->
  wino wr' = wino wr -> wcap wr' = wcap wr -> flushed ++ wpend wr' = wpend wr ++ x -> wr_ok wr' ->
  CurF c w' wr' path (g ++ x).
Proof.
  intros W [Fng Fc Fp Fd Fw Fcap] F Ei Ec Ef Hok. pose proof (wf_bound _ W _ _ Fc) as Hold.
  constructor.
  - exact Fng.
  - rewrite F, lookup_append, Ei. exact Fc.
  - rewrite F, Ei, inode_append, Nat.eqb_refl by exact Hold. exact Fp.
  - unfold cur_view in *. rewrite F, Ei, content_append, Nat.eqb_refl by exact Hold.
    rewrite <- app_assoc, Ef, app_assoc, Fd. reflexivity.
  - exact Hok.
  - congruence.
Qed.

(* a write, from a state with a file: the rotation check, then the record goes to the file the writer has then *)
Lemma write_active_cur c crit k e s w rs wr path g b r w1 s1 rot :
  tsdkcfg c crit k -> tag_ok c -> sfx_ok (c_spec c) -> in_years e (wnow w) ->
  quiet w -> fs_wf (wfs w) -> eoff c w = e ->
  f_cfg s = c -> f_inner s = Active (Some rs) wr path -> InnerInv c k w (f_inner s) g ->
  write_buffer s w b = (r, w1, s1, rot) ->
  env2 w w1 /\ fs_wf (wfs w1) /\ f_cfg s1 = c /\ r <> Err
  /\ f_poisoned s1 = (match r with Panic => true | _ => f_poisoned s end)
  /\ InnerInv c k w1 (f_inner s1)
       (let acc := match r with Ok _ => b | _ => [] end in
        if same_file (wfile (f_inner s)) (wfile (f_inner s1)) then g ++ acc else acc).
Proof.
  intros Hcfg T Hsfx Y Q W Hoff Ec Ei I. unfold write_buffer. rewrite Ei, Ec. rewrite Ei in I. cbn [InnerInv] in I.
  destruct I as (Ens & Ek & Eb & F).
  destruct (mount_next c w (Active (Some rs) wr path) false) as [[r1 wm] st1] eqn:EM.
  destruct (mount_next_spares_new_file c crit k e w rs wr path false g r1 wm st1 Hcfg T Hsfx Y Q W Hoff Ens Ek Eb F EM)
    as (E1 & W1 & rs' & wr' & path' & -> & Ens' & Ek' & Eb' & D).
  cbn [wfile].
  assert (G1 : exists g1, CurF c wm wr' path' g1
               /\ forall wr'', wino wr'' = wino wr' ->
                    forall acc, (if same_file (Some (path, wino wr)) (Some (path', wino wr'')) then g ++ acc else acc) = g1 ++ acc).
  { destruct D as [(-> & -> & F1)|(Hne & _ & F1)].
    - exists g. split; [exact F1|]. intros wr'' -> acc. rewrite same_file_refl. reflexivity.
    - exists []. split; [exact F1|]. intros wr'' _ acc. rewrite same_file_other by exact Hne. reflexivity. }
  destruct G1 as (g1 & F1 & SF).
  destruct r1 as [[]| |].
  - (* the rotation check succeeded *)
    destruct (w_write_quiet wm wr' b (proj1 E1) (cf_wr _ _ _ _ _ F1)) as (w3 & wr'' & fl & EW & S3 & F3 & Ei3 & Ec3 & Ef3 & Hok3).
    rewrite EW. intros E. injection E as <- <- <- _. cbn [f_cfg f_inner f_poisoned with_inner wfile].
    split; [eapply env2_trans; [exact E1 | apply same_env_env2; exact S3]|].
    split; [rewrite F3; apply wf_append; exact W1|]. split; [exact Ec|]. split; [discriminate|]. split; [reflexivity|].
    cbn [InnerInv rs_naming rs_cleanup rs_bg]. split; [exact Ens'|]. split; [exact Ek'|]. split; [exact Eb'|].
    cbv beta iota zeta.
    match goal with |- CurF _ _ _ _ ?X => assert (EX : X = g1 ++ b) by (apply SF; exact Ei3); rewrite EX end.
    eapply curf_append; eassumption.
  - (* the rotation failed: reported, the record goes to the file the writer has *)
    destruct (report_env2 ELogFile wm (proj1 E1)) as [Er Fr].
    assert (F1r : CurF c (report ELogFile wm) wr' path' g1) by (eapply curf_same_fs; eassumption).
    assert (W1r : fs_wf (wfs (report ELogFile wm))) by (rewrite Fr; exact W1).
    destruct (w_write_quiet (report ELogFile wm) wr' b (proj1 Er) (cf_wr _ _ _ _ _ F1r)) as (w3 & wr'' & fl & EW & S3 & F3 & Ei3 & Ec3 & Ef3 & Hok3).
    rewrite EW. intros E. injection E as <- <- <- _. cbn [f_cfg f_inner f_poisoned with_inner wfile].
    split; [eapply env2_trans; [exact E1 | eapply env2_trans; [exact Er | apply same_env_env2; exact S3]]|].
    split; [rewrite F3; apply wf_append; exact W1r|]. split; [exact Ec|]. split; [discriminate|]. split; [reflexivity|].
    cbn [InnerInv rs_naming rs_cleanup rs_bg]. split; [exact Ens'|]. split; [exact Ek'|]. split; [exact Eb'|].
    cbv beta iota zeta.
    match goal with |- CurF _ _ _ _ ?X => assert (EX : X = g1 ++ b) by (apply SF; exact Ei3); rewrite EX end.
    eapply curf_append; eassumption.
  - (* panic: the state is poisoned, nothing is written *)
    intros E. injection E as <- <- <- _. cbn [f_cfg f_inner f_poisoned with_inner poison wfile].
    split; [exact E1|]. split; [exact W1|]. split; [exact Ec|]. split; [discriminate|]. split; [reflexivity|].
    cbn [InnerInv rs_naming rs_cleanup rs_bg]. split; [exact Ens'|]. split; [exact Ek'|]. split; [exact Eb'|].
    cbv beta iota zeta.
    match goal with |- CurF _ _ _ _ ?X => assert (EX : X = g1 ++ []) by (apply SF; reflexivity); rewrite EX end.
    rewrite app_nil_r. exact F1.
Qed.

(* a write from any state: the first write opens the first file in the empty directory (initialize_empty_tk) *)
Lemma write_buffer_cur c crit k e s w g b r w1 s1 rot :
  tsdkcfg c crit k -> tag_ok c -> sfx_ok (c_spec c) -> in_years e (wnow w) ->
  quiet w -> fs_wf (wfs w) -> eoff c w = e ->
  f_cfg s = c -> f_poisoned s = false -> InnerInv c k w (f_inner s) g ->
  write_buffer s w b = (r, w1, s1, rot) ->
  env2 w w1 /\ fs_wf (wfs w1) /\ f_cfg s1 = c /\ r <> Err
  /\ f_poisoned s1 = (match r with Panic => true | _ => false end)
  /\ InnerInv c k w1 (f_inner s1)
       (let acc := match r with Ok _ => b | _ => [] end in
        if same_file (wfile (f_inner s)) (wfile (f_inner s1)) then g ++ acc else acc).
Proof.
  intros Hcfg T Hsfx Y Q W Hoff Ec Hp I EWB.
  destruct (f_inner s) as [|[rs|] wr path] eqn:Ei; cbn [InnerInv] in I; [| |contradiction].
  - (* the first write *)
    destruct I as (Hn & Hi & ->).
    assert (Es : s = new_flw c) by (destruct s; cbn in *; subst; reflexivity). subst s.
    assert (Yy : years_ok e (wnow w) (wnow w)) by (unfold years_ok, in_years in *; lia).
    destruct (initialize_empty_tk c crit k e (wnow w) (wnow w) w Hcfg Hsfx Yy (Z.le_refl _) Q Hn Hi Hoff (Z.le_refl _))
      as (w0 & wr & roll & Einit & I0 & V0 & _ & S0 & _).
    rewrite (write_buffer_init c w b _ _ _ w0 Einit) in EWB.
    pose proof I0 as [Q0 W0 Hoff0 _ Hc0 Hcp0 _ _ _ _ _ Hwr0 Hcap0].
    change (tname c e [(wnow w, 0)] (length (@nil bytes))) with (kname c e (wnow w, 0)) in Hc0.
    assert (Y0 : in_years e (wnow w0)) by (rewrite (same_env_now _ _ S0); exact Y).
    match type of EWB with write_buffer ?S0 _ _ = _ => set (s0 := S0) in * end.
    assert (I0' : InnerInv c k w0 (f_inner s0) []).
    { cbn [s0 f_inner InnerInv mk_rsk rs_naming rs_cleanup rs_bg]. split; [eauto|]. split; [reflexivity|].
      split; [reflexivity|]. constructor; auto. apply (kname_no_gz c e (wnow w, 0) Hsfx). exact Y. }
    destruct (write_active_cur c crit k e s0 w0 _ wr _ [] b r w1 s1 rot Hcfg T Hsfx Y0 Q0 W0 Hoff0 eq_refl eq_refl I0' EWB)
      as (E1 & W1 & Ec1 & Hr & Hp1 & I1).
    split; [eapply env2_trans; [apply same_env_env2; exact S0 | exact E1]|]. split; [exact W1|]. split; [exact Ec1|].
    split; [exact Hr|]. split; [rewrite Hp1; destruct r; reflexivity|].
    cbn [wfile same_file]. cbv zeta in I1 |- *. destruct (same_file (wfile (f_inner s0)) (wfile (f_inner s1))); exact I1.
  - (* a later write *)
    assert (I' : InnerInv c k w (f_inner s) g) by (rewrite Ei; exact I).
    destruct (write_active_cur c crit k e s w rs wr path g b r w1 s1 rot Hcfg T Hsfx Y Q W Hoff Ec Ei I' EWB)
      as (E1 & W1 & Ec1 & Hr & Hp1 & I1).
    rewrite Ei in I1. rewrite Hp in Hp1. auto 10.
Qed.

(* what an operation hands to the writer: the bytes of a record or chunk that is accepted *)
Definition accepted (o : op) (ob : obs) : bytes :=
  match o, ob with
  | OWrite b, ObsRes 0%N _ => b
  | OPlain b, ObsRes 0%N _ => b
  | _, _ => []
  end.
(* WHAT WAS WRITTEN TO THE FILE OF THE WRITER SINCE IT WAS OPENED: the count restarts whenever the writer has another file
   (name, inode) after an operation than before - the first file, or a new file after a rotation *)
Definition g_next (x x' : sys) (o : op) (ob : obs) (g : bytes) : bytes :=
  if same_file (writer_file x) (writer_file x') then g ++ accepted o ob else accepted o ob.
Fixpoint since_opened (x : sys) (g : bytes) (ops : list op) : bytes :=
  match ops with
  | [] => g
  | o :: r => let '(x', ob) := step x o in since_opened x' (g_next x x' o ob g) r
  end.

(* the clock stays within the years 1970..9999 - it need not advance (weaker than tick_ok together with the bounds on the
   first and the last instant that the retention theorems timestamps_cleanup / timestampsdirect_cleanup assume) *)
Fixpoint clock_in_years (e t : Z) (ops : list op) : Prop :=
  match ops with
  | [] => in_years e t
  | o :: r => in_years e t /\ clock_in_years e (t + dt_of o)%Z r
  end.

Lemma clock_in_years_now e t ops : clock_in_years e t ops -> in_years e t.
Proof. destruct ops; cbn [clock_in_years]; tauto. Qed.

(* the hypotheses of the retention theorems imply it *)
Lemma clock_in_years_forward e t ops : Forall tick_ok ops -> (0 <= t + e)%Z -> (t + elapsed ops + e < sec_max)%Z ->
  clock_in_years e t ops.
Proof.
  revert t; induction ops as [|o r IH]; intros t Htk Hlo Hhi; cbn [clock_in_years elapsed] in *.
  - unfold in_years. lia.
  - inversion Htk as [|o' r' Ho Hr]; subst. pose proof (elapsed_nonneg r Hr) as Er.
    assert (Hdt : (0 <= dt_of o)%Z) by (destruct o; cbn [dt_of tick_ok] in *; lia).
    split; [unfold in_years; lia|]. apply IH; [exact Hr | lia | lia].
Qed.

Definition RunInv (c : config) (k : cleanup) (e : Z) (x : sys) (g : bytes) : Prop :=
  exists s, s_flw x = Some s /\ f_cfg s = c /\ (f_poisoned s = false -> s_tl x = [])
    /\ quiet (s_w x) /\ fs_wf (wfs (s_w x)) /\ eoff c (s_w x) = e /\ InnerInv c k (s_w x) (f_inner s) g.

Lemma gnext_nil c k w st g : InnerInv c k w st g -> (if same_file (wfile st) (wfile st) then g ++ [] else []) = g.
Proof.
  destruct st as [|o wr path]; cbn [InnerInv wfile].
  - intros (_ & _ & ->). reflexivity.
  - intros _. rewrite same_file_refl. apply app_nil_r.
Qed.

Lemma gnext_idle c k w st x x' o ob g :
  writer_file x = wfile st -> writer_file x' = wfile st -> accepted o ob = [] -> InnerInv c k w st g ->
  g_next x x' o ob g = g.
Proof.
  intros E1 E2 Ha I. unfold g_next. rewrite E1, E2, Ha. destruct st as [|o' wr path]; cbn [InnerInv wfile] in *.
  - destruct I as (_ & _ & ->). reflexivity.
  - rewrite same_file_refl. apply app_nil_r.
Qed.

Lemma step_sync_cur c crit k e x g o : tsdkcfg c crit k -> RunInv c k e x g -> step x o = sync_step x o.
Proof.
  intros (_ & Hts & _ & Ha & _) (s & Es & Ec & _).
  rewrite step_plain by (intros s' Es'; rewrite Es in Es'; injection Es' as <-; rewrite Ec; exact Hts).
  unfold step_core. rewrite Es. unfold is_async. rewrite Ec, Ha. reflexivity.
Qed.

(* one operation, at any time of the clock *)
Lemma step_cur c crit k e x g o :
  tsdkcfg c crit k -> tag_ok c -> sfx_ok (c_spec c) -> RunInv c k e x g -> basic_op o -> in_years e (wnow (s_w x)) ->
  let '(x', ob) := step x o in
  RunInv c k e x' (g_next x x' o ob g) /\ wnow (s_w x') = (wnow (s_w x) + dt_of o)%Z.
Proof.
  intros Hcfg T Hsfx R Hb Y. rewrite (step_sync_cur c crit k e x g o Hcfg R).
  destruct R as (s & Es & Ec & Htl & Q & W & Hoff & I).
  assert (WF : writer_file x = wfile (f_inner s)) by (unfold writer_file; rewrite Es; reflexivity).
  (* nothing happens to the writer and the directory *)
  assert (Idle : forall tl dd ob, accepted o ob = [] -> (f_poisoned s = false -> tl = []) ->
            RunInv c k e {| s_flw := s_flw x; s_w := s_w x; s_tl := tl; s_dead := dd |}
                   (g_next x {| s_flw := s_flw x; s_w := s_w x; s_tl := tl; s_dead := dd |} o ob g)
            /\ wnow (s_w x) = (wnow (s_w x) + 0)%Z).
  { intros tl dd ob Ha Ht. split; [|lia].
    rewrite (gnext_idle c k (s_w x) (f_inner s) x _ o ob g WF) by (try exact Ha; try exact I; unfold writer_file; cbn [s_flw]; rewrite Es; reflexivity).
    exists s. cbn [s_flw s_w s_tl]. auto 10. }
  assert (Idle' : forall ob, accepted o ob = [] -> RunInv c k e x (g_next x x o ob g) /\ wnow (s_w x) = (wnow (s_w x) + 0)%Z).
  { intros ob Ha. destruct (Idle (s_tl x) (s_dead x) ob Ha Htl) as [R1 R2]. destruct x; exact (conj R1 R2). }
  rewrite Es in Idle.
  destruct o; try contradiction; cbn [sync_step dt_of]; rewrite ?Es.
  - (* OWrite *)
    destruct (f_poisoned s) eqn:Hp.
    + apply Idle; [reflexivity | discriminate].
    + rewrite (Htl eq_refl). cbn [app].
      destruct (write_buffer s (s_w x) b) as [[[r w1] s1] rot] eqn:EWB.
      destruct (write_buffer_cur c crit k e s (s_w x) g b r w1 s1 rot Hcfg T Hsfx Y Q W Hoff Ec Hp I EWB) as (E1 & W1 & Ec1 & Hr & Hp1 & I1).
      assert (Ew : match r with Err => report EWrite w1 | _ => w1 end = w1) by (destruct r; [reflexivity | congruence | reflexivity]).
      rewrite Ew. split; [|cbn [s_w]; destruct E1 as (_ & -> & _); lia].
      exists s1. cbn [s_flw s_w s_tl]. split; [reflexivity|]. split; [exact Ec1|].
      split; [rewrite Hp1; destruct r; [reflexivity | reflexivity | discriminate]|].
      split; [apply E1|]. split; [exact W1|]. split; [rewrite (eoff_env2 c _ _ E1); exact Hoff|].
      unfold g_next. rewrite WF. unfold writer_file. cbn [s_flw]. cbv zeta in I1.
      destruct r as [[]| |]; [exact I1 | congruence | exact I1].
  - (* OPlain *)
    destruct (f_poisoned s) eqn:Hp.
    + apply Idle'. reflexivity.
    + destruct (write_buffer s (s_w x) b) as [[[r w1] s1] rot] eqn:EWB.
      destruct (write_buffer_cur c crit k e s (s_w x) g b r w1 s1 rot Hcfg T Hsfx Y Q W Hoff Ec Hp I EWB) as (E1 & W1 & Ec1 & Hr & Hp1 & I1).
      split; [|cbn [s_w]; destruct E1 as (_ & -> & _); lia].
      exists s1. cbn [s_flw s_w s_tl]. split; [reflexivity|]. split; [exact Ec1|].
      split; [intros _; apply Htl; reflexivity|].
      split; [apply E1|]. split; [exact W1|]. split; [rewrite (eoff_env2 c _ _ E1); exact Hoff|].
      unfold g_next. rewrite WF. unfold writer_file. cbn [s_flw]. cbv zeta in I1.
      destruct r as [[]| |]; [exact I1 | congruence | exact I1].
  - (* OFlush *)
    destruct (f_poisoned s) eqn:Hp; [apply Idle'; reflexivity|].
    unfold flush_state. destruct (f_inner s) as [|[rs|] wr path] eqn:Ei; cbn [InnerInv] in I; [| |contradiction].
    + apply Idle; [reflexivity | exact Htl].
    + destruct I as (Ens & Ek & Eb & F).
      destruct (w_flush_quiet (s_w x) wr Q) as (w1 & Efl & F1 & S1). rewrite Efl.
      split; [|cbn [s_w]; rewrite (same_env_now _ _ S1); lia].
      eexists. cbn [s_flw s_w s_tl]. split; [reflexivity|]. cbn [with_inner f_cfg f_poisoned f_inner]. split; [exact Ec|].
      split; [intros _; apply Htl; reflexivity|]. split; [apply S1|]. split; [rewrite F1; apply wf_append; exact W|].
      split; [rewrite (eoff_env2 c _ _ (same_env_env2 _ _ S1)); exact Hoff|].
      cbn [InnerInv]. split; [exact Ens|]. split; [exact Ek|]. split; [exact Eb|].
      unfold g_next. rewrite WF. unfold writer_file. cbn [s_flw with_inner f_inner wfile wino]. rewrite same_file_refl. cbn [accepted].
      eapply (curf_append c (s_w x) w1 wr _ path g [] (wpend wr) W F F1); cbn [wino wcap wpend]; try reflexivity.
      unfold wr_ok. cbn [wcap wpend]. destruct (wcap wr); [cbn; lia | reflexivity].
  - (* OTrigger *)
    destruct (f_poisoned s) eqn:Hp; [apply Idle'; reflexivity|]. rewrite Ec.
    destruct (f_inner s) as [|[rs|] wr path] eqn:Ei; cbn [InnerInv] in I; [| |contradiction].
    + cbn [mount_next code_of]. split; [|cbn [s_w]; lia].
      exists (with_inner s Initial). cbn [s_flw s_w s_tl with_inner f_cfg f_poisoned f_inner]. split; [reflexivity|]. split; [exact Ec|].
      split; [intros _; apply Htl; reflexivity|]. split; [exact Q|]. split; [exact W|]. split; [exact Hoff|]. cbn [InnerInv].
      unfold g_next. rewrite WF. unfold writer_file. cbn [s_flw with_inner f_inner]. cbn [wfile same_file accepted].
      destruct I as (Hn & Hi & ->). auto.
    + destruct I as (Ens & Ek & Eb & F).
      destruct (mount_next c (s_w x) (Active (Some rs) wr path) true) as [[r w1] st1] eqn:EM.
      destruct (mount_next_spares_new_file c crit k e (s_w x) rs wr path true g r w1 st1 Hcfg T Hsfx Y Q W Hoff Ens Ek Eb F EM)
        as (E1 & W1 & rs' & wr' & path' & -> & Ens' & Ek' & Eb' & D).
      split; [|cbn [s_w]; destruct E1 as (_ & -> & _); lia].
      exists (match r with Panic => poison (with_inner s (Active (Some rs') wr' path')) | _ => with_inner s (Active (Some rs') wr' path') end).
      cbn [s_flw s_w s_tl]. split; [reflexivity|].
      split; [destruct r; exact Ec|].
      split; [intros _; apply Htl; reflexivity|].
      split; [apply E1|]. split; [exact W1|]. split; [rewrite (eoff_env2 c _ _ E1); exact Hoff|].
      assert (Ein : f_inner (match r with Panic => poison (with_inner s (Active (Some rs') wr' path')) | _ => with_inner s (Active (Some rs') wr' path') end)
                    = Active (Some rs') wr' path') by (destruct r; reflexivity).
      unfold g_next. rewrite WF. unfold writer_file. cbn [s_flw]. rewrite Ein. cbn [InnerInv wfile accepted].
      split; [exact Ens'|]. split; [exact Ek'|]. split; [exact Eb'|].
      destruct D as [(-> & -> & F1)|(Hne & _ & F1)].
      * rewrite same_file_refl, app_nil_r. exact F1.
      * rewrite same_file_other by exact Hne. exact F1.
  - (* OTick *)
    split; [|reflexivity]. exists s. cbn [s_flw s_w s_tl]. split; [reflexivity|]. split; [exact Ec|]. split; [exact Htl|].
    split; [exact Q|]. split; [exact W|]. split; [exact Hoff|].
    rewrite (gnext_idle c k (s_w x) (f_inner s) x _ (OTick dt) _ g WF) by (try reflexivity; exact I).
    apply (innerinv_same_fs c k (s_w x)); [reflexivity | exact I].
  - (* OSnap *)
    apply Idle'. reflexivity.
Qed.

Lemma run_cur c crit k e : tsdkcfg c crit k -> tag_ok c -> sfx_ok (c_spec c) ->
  forall ops x g, RunInv c k e x g -> Forall basic_op ops -> clock_in_years e (wnow (s_w x)) ops ->
  RunInv c k e (fst (run x ops)) (since_opened x g ops).
Proof.
  intros Hcfg T Hsfx. induction ops as [|o r IH]; intros x g R Hb Hc; [exact R|].
  inversion Hb as [|o' r' Hbo Hbr]; subst. cbn [clock_in_years] in Hc. destruct Hc as [Y Hc].
  cbn [run since_opened].
  pose proof (step_cur c crit k e x g o Hcfg T Hsfx R Hbo Y) as S.
  destruct (step x o) as [x1 ob]. destruct S as [R1 N1].
  specialize (IH x1 (g_next x x1 o ob g) R1 Hbr). rewrite N1 in IH. specialize (IH Hc).
  destruct (run x1 r) as [x2 obs]. exact IH.
Qed.

(* THE THEOREM: every history of basic operations of a TimestampsDirect writer with a cleanup strategy, the clock ANYWHERE
   in the years 1970..9999 at every instant - it may be set back at will (OTick with negative values), there is no tick_ok.
   Whenever the writer has a file (that is: from the first write on), after every operation - the history is arbitrary, so
   this is the state after every prefix, see the corollary -
   - the file exists under the name the writer has for it, with the inode the writer writes to,
   - it is a plain file (not compressed, not an unfinished archive, not a directory),
   - and, together with what the writer still buffers, it holds exactly what was written to it since it was opened. *)
Theorem timestampsdirect_current_never_cleaned c crit k t0 off ops :
  tsdkcfg c crit k -> tag_ok c -> sfx_ok (c_spec c) -> Forall basic_op ops ->
  clock_in_years (ts_e c off) t0 ops ->
  let x := fst (run (sys0 t0 off) (OStart c :: ops)) in
  forall path ino, writer_file x = Some (path, ino) ->
  exists s o_rot wr fl,
    s_flw x = Some s /\ f_inner s = Active o_rot wr path /\ wino wr = ino
    /\ lookup (wfs (s_w x)) path = Some ino /\ file_of (wfs (s_w x)) path = Some fl
    /\ fgz fl = 0%N /\ fdir fl = false
    /\ fdata fl ++ wpend wr = since_opened (sys0 t0 off) [] (OStart c :: ops).
Proof.
  intros Hcfg T Hsfx Hb Hc x path ino Hw.
  assert (R0 : RunInv c k (ts_e c off) (fst (step (sys0 t0 off) (OStart c))) []).
  { exists (new_flw c). cbn. repeat split; auto; apply wf_empty. }
  pose proof (run_cur c crit k (ts_e c off) Hcfg T Hsfx ops _ [] R0 Hb Hc) as R.
  assert (Ex : fst (run (fst (step (sys0 t0 off) (OStart c))) ops) = x).
  { unfold x. cbn [run]. destruct (step (sys0 t0 off) (OStart c)) as [x1 ob1]. cbn [fst]. destruct (run x1 ops). reflexivity. }
  rewrite Ex in R.
  change (since_opened (fst (step (sys0 t0 off) (OStart c))) [] ops) with (since_opened (sys0 t0 off) [] (OStart c :: ops)) in R.
  destruct R as (s & Es & Ec & _ & _ & _ & _ & I).
  unfold writer_file in Hw. rewrite Es in Hw.
  destruct (f_inner s) as [|[rs|] wr p] eqn:Ei; cbn [wfile InnerInv] in Hw, I; [discriminate | | contradiction].
  injection Hw as -> <-. destruct I as (_ & _ & _ & [Fng Fc [Fp1 Fp2] Fd _ _]).
  exists s, (Some rs), wr, (inode (wfs (s_w x)) (wino wr)).
  split; [exact Es|]. split; [exact Ei|]. split; [reflexivity|]. split; [exact Fc|].
  split; [unfold file_of; rewrite Fc; reflexivity|]. split; [exact Fp1|]. split; [exact Fp2|]. exact Fd.
Qed.
Print Assumptions timestampsdirect_current_never_cleaned.

(* after every operation: the theorem for every prefix of the history *)
Lemma clock_in_years_firstn e : forall n ops t, clock_in_years e t ops -> clock_in_years e t (firstn n ops).
Proof.
  induction n as [|n IH]; intros [|o r] t H; cbn [firstn clock_in_years] in *; try tauto.
  destruct H as [H1 H2]. split; [exact H1 | apply IH; exact H2].
Qed.
Lemma Forall_firstn' {A} (P : A -> Prop) n l : Forall P l -> Forall P (firstn n l).
Proof. revert l; induction n as [|n IH]; intros [|a l] H; cbn [firstn]; auto. inversion H; subst. constructor; auto. Qed.

Corollary timestampsdirect_current_never_cleaned_prefix c crit k t0 off ops n :
  tsdkcfg c crit k -> tag_ok c -> sfx_ok (c_spec c) -> Forall basic_op ops ->
  clock_in_years (ts_e c off) t0 ops ->
  let x := fst (run (sys0 t0 off) (OStart c :: firstn n ops)) in
  forall path ino, writer_file x = Some (path, ino) ->
  exists s o_rot wr fl,
    s_flw x = Some s /\ f_inner s = Active o_rot wr path /\ wino wr = ino
    /\ lookup (wfs (s_w x)) path = Some ino /\ file_of (wfs (s_w x)) path = Some fl
    /\ fgz fl = 0%N /\ fdir fl = false
    /\ fdata fl ++ wpend wr = since_opened (sys0 t0 off) [] (OStart c :: firstn n ops).
Proof.
  intros Hcfg T Hsfx Hb Hc. apply (timestampsdirect_current_never_cleaned c crit k t0 off (firstn n ops) Hcfg T Hsfx).
  - apply Forall_firstn'. exact Hb.
  - apply clock_in_years_firstn. exact Hc.
Qed.

(* ================================================================== examples *)
Import String.StringSyntax.
Open Scope string_scope.

(* 1. THE FILE THAT IS BEING WRITTEN IS LISTED LAST (its time stamp is older: the clock was set back).  The listing has the file
      of second 5 first; with the limits of KeepLogFiles(1) the position of the current file is beyond the limit:
      - told which file it is (cur = Some ..) the cleanup spares it, with KLog 1 and with KGz 1 (where its position is in the
        zone that is compressed);
      - not told (cur = None; this is the loop of the code before the repair, which relied on the position), it removes it. *)
Definition cs_cur : bytes := bs "app_r1970-01-01_00-00-00.log".
Definition cs_old : bytes := bs "app_r1970-01-01_00-00-05.log".
Definition cs_fs : fs := mkfile (mkfile empty_fs cs_old (bs "b") 0 5) cs_cur (bs "c") 0 6.
Lemma cs_fs_wf : fs_wf cs_fs.
Proof. unfold cs_fs. repeat (apply wf_mkfile; [|vm_compute; reflexivity]). apply wf_empty. Qed.

Example cleanup_spares_current_instance :
  list_log_gz 0 (c_spec (tk_cfg (KLog 1) "log")) (fixed0 (tk_cfg (KLog 1) "log")) cs_fs (IFTs std_fmt) = Some [cs_old; cs_cur]
  /\ lookup cs_fs cs_cur = Some 1
  /\ (forall k r w', cleanup_impl (tk_cfg k "log") (world_of cs_fs) k (IFTs std_fmt) (Some cs_cur) = (r, w') ->
        lookup (wfs w') cs_cur = Some 1 /\ inode (wfs w') 1 = {| fdata := bs "c"; fgz := 0; fborn := 6; fdir := false |})
  /\ (let r := cleanup_impl (tk_cfg (KLog 1) "log") (world_of cs_fs) (KLog 1) (IFTs std_fmt) (Some cs_cur) in
      fst r = Ok tt /\ snap_of {| s_flw := None; s_w := snd r; s_tl := []; s_dead := false |}
                      = [(cs_cur, 0%N, bs "c"); (cs_old, 0%N, bs "b")])
  /\ (let r := cleanup_impl (tk_cfg (KGz 1) "log") (world_of cs_fs) (KGz 1) (IFTs std_fmt) (Some cs_cur) in
      fst r = Ok tt /\ snap_of {| s_flw := None; s_w := snd r; s_tl := []; s_dead := false |}
                      = [(cs_cur, 0%N, bs "c"); (cs_old, 0%N, bs "b")])
  /\ (let r := cleanup_impl (tk_cfg (KLog 1) "log") (world_of cs_fs) (KLog 1) (IFTs std_fmt) None in
      fst r = Ok tt /\ snap_of {| s_flw := None; s_w := snd r; s_tl := []; s_dead := false |} = [(cs_old, 0%N, bs "b")]).
Proof.
  split; [vm_compute; reflexivity|]. split; [vm_compute; reflexivity|].
  split.
  { intros k r w' E.
    destruct (cleanup_spares_current (tk_cfg k "log") (world_of cs_fs) k (IFTs std_fmt) cs_cur 1 r w' cs_fs_wf) as (_ & L & I);
      [vm_compute; reflexivity | vm_compute; reflexivity | exact E |]. split; [exact L | rewrite I; vm_compute; reflexivity]. }
  repeat split; vm_compute; reflexivity.
Qed.

(* 2. THE HYPOTHESIS ON THE NAME IS NECESSARY (cleanup_spares_current is FALSE without it): a "current file" with an archive
      name whose original is listed too is removed - not by the loop, which skips it, but before the loop, with the redundant
      archives (remove_redundant does not know about cur; neither does the Rust code before its loop).  No direct naming
      gives the file that is being written such a name when the configured suffix does not end in gz (sfx_ok). *)
Definition an_gz : bytes := bs "app_r1970-01-01_00-00-05.log.gz".
Definition an_fs : fs := mkfile (mkfile empty_fs cs_old (bs "b") 0 5) an_gz (bs "z") 1 6.
Example archive_name_not_spared :
  fs_wf an_fs /\ lookup an_fs an_gz = Some 1
  /\ strip_suffix (dot :: gz_sfx) an_gz = Some cs_old
  /\ (let r := cleanup_impl (tk_cfg (KLog 5) "log") (world_of an_fs) (KLog 5) (IFTs std_fmt) (Some an_gz) in
      fst r = Ok tt /\ lookup (wfs (snd r)) an_gz = None
      /\ snap_of {| s_flw := None; s_w := snd r; s_tl := []; s_dead := false |} = [(cs_old, 0%N, bs "b")]).
Proof.
  split; [unfold an_fs; repeat (apply wf_mkfile; [|vm_compute; reflexivity]); apply wf_empty|].
  repeat split; vm_compute; reflexivity.
Qed.

(* 3. THE CLOCK IS SET BACK (back_ops of TsTheorems.v: "a" in second 0, "b" in second 5, then OTick (-5), "c" and "d" in
      second 0 again; tk_cfg of TsdCleanup.v: TimestampsDirect, a buffered writer).  tick_ok does not hold, the hypotheses of
      the theorem do; with KLog 1 and with KGz 1 the writer ends with a file of second 0 - listed behind the file of second
      5 - that exists, is plain, and holds (with the buffer) the last record "d". *)
Example clock_backwards_hypotheses k :
  tsdkcfg (tk_cfg k "log") (CSize 100) k /\ tag_ok (tk_cfg k "log") /\ sfx_ok (c_spec (tk_cfg k "log"))
  /\ Forall basic_op back_ops /\ ~ Forall tick_ok back_ops
  /\ clock_in_years (ts_e (tk_cfg k "log") 0) 0 back_ops.
Proof.
  split; [apply tk_cfg_ok|]. split; [apply tk_tag_ok|]. split; [apply tk_sfx_ok|].
  split; [repeat constructor|].
  split.
  { intros H. rewrite Forall_forall in H. specialize (H (OTick (-5))). cbn [tick_ok] in H.
    assert (X : (0 <= -5)%Z) by (apply H; unfold back_ops; cbn [In]; tauto). lia. }
  unfold back_ops. cbn [clock_in_years dt_of ts_e tk_cfg c_utc]. unfold in_years. repeat split; vm_compute; congruence.
Qed.

Example current_never_cleaned_instance :
  (let x := fst (run (sys0 0 0) (OStart (tk_cfg (KLog 1) "log") :: back_ops)) in
   writer_file x = Some (bs "app_r1970-01-01_00-00-00.restart-0000.log", 3)
   /\ since_opened (sys0 0 0) [] (OStart (tk_cfg (KLog 1) "log") :: back_ops) = bs "d"
   /\ exists s o_rot wr fl, s_flw x = Some s /\ f_inner s = Active o_rot wr (bs "app_r1970-01-01_00-00-00.restart-0000.log")
        /\ file_of (wfs (s_w x)) (bs "app_r1970-01-01_00-00-00.restart-0000.log") = Some fl
        /\ fgz fl = 0%N /\ fdir fl = false /\ fdata fl ++ wpend wr = bs "d")
  /\ (let x := fst (run (sys0 0 0) (OStart (tk_cfg (KGz 1) "log") :: back_ops)) in
      writer_file x = Some (bs "app_r1970-01-01_00-00-00.restart-0001.log", 4)
      /\ since_opened (sys0 0 0) [] (OStart (tk_cfg (KGz 1) "log") :: back_ops) = bs "d"
      /\ exists s o_rot wr fl, s_flw x = Some s /\ f_inner s = Active o_rot wr (bs "app_r1970-01-01_00-00-00.restart-0001.log")
           /\ file_of (wfs (s_w x)) (bs "app_r1970-01-01_00-00-00.restart-0001.log") = Some fl
           /\ fgz fl = 0%N /\ fdir fl = false /\ fdata fl ++ wpend wr = bs "d").
Proof.
  assert (G : forall k p i, writer_file (fst (run (sys0 0 0) (OStart (tk_cfg k "log") :: back_ops))) = Some (p, i) ->
              since_opened (sys0 0 0) [] (OStart (tk_cfg k "log") :: back_ops) = bs "d" ->
              let x := fst (run (sys0 0 0) (OStart (tk_cfg k "log") :: back_ops)) in
              exists s o_rot wr fl, s_flw x = Some s /\ f_inner s = Active o_rot wr p
                /\ file_of (wfs (s_w x)) p = Some fl /\ fgz fl = 0%N /\ fdir fl = false /\ fdata fl ++ wpend wr = bs "d").
  { intros k p i Hw Hs x. destruct (clock_backwards_hypotheses k) as (H1 & H2 & H3 & H4 & _ & H6).
    destruct (timestampsdirect_current_never_cleaned (tk_cfg k "log") (CSize 100) k 0 0 back_ops H1 H2 H3 H4 H6 p i Hw)
      as (s & o_rot & wr & fl & A1 & A2 & _ & _ & A5 & A6 & A7 & A8).
    exists s, o_rot, wr, fl. rewrite Hs in A8. auto 10. }
  split.
  - assert (Hw : writer_file (fst (run (sys0 0 0) (OStart (tk_cfg (KLog 1) "log") :: back_ops)))
                 = Some (bs "app_r1970-01-01_00-00-00.restart-0000.log", 3)) by (vm_compute; reflexivity).
    assert (Hs : since_opened (sys0 0 0) [] (OStart (tk_cfg (KLog 1) "log") :: back_ops) = bs "d") by (vm_compute; reflexivity).
    cbv zeta. split; [exact Hw|]. split; [exact Hs|]. exact (G _ _ _ Hw Hs).
  - assert (Hw : writer_file (fst (run (sys0 0 0) (OStart (tk_cfg (KGz 1) "log") :: back_ops)))
                 = Some (bs "app_r1970-01-01_00-00-00.restart-0001.log", 4)) by (vm_compute; reflexivity).
    assert (Hs : since_opened (sys0 0 0) [] (OStart (tk_cfg (KGz 1) "log") :: back_ops) = bs "d") by (vm_compute; reflexivity).
    cbv zeta. split; [exact Hw|]. split; [exact Hs|]. exact (G _ _ _ Hw Hs).
Qed.
