(* An open writer in a world without faults and kills: flush, shutdown, drop, reopen_outputfile() and reset() as
   equations, for ANY rotation state: each appends the buffered tail to the inode the writer has open (flushed) and
   changes nothing else in the world, except that reopen also opens its path again. *)
Require Import FL.Base.Bytes FL.Fs.Fs FL.Fs.FsFacts FL.Flw.Model FL.Flw.ModelFacts FL.Flw.Run FL.Flw.RunFacts.

Definition flushed (w : world) (wr : writer) : world := set_fs w (append_ino (wfs w) (wino wr) (wpend wr)).
Definition emptied (wr : writer) : writer := {| wino := wino wr; wpend := []; wcap := wcap wr |}.

Lemma flushed_fs w wr : wfs (flushed w wr) = append_ino (wfs w) (wino wr) (wpend wr).
Proof. reflexivity. Qed.
Lemma flushed_env w wr : quiet w -> same_env w (flushed w wr).
Proof. apply same_env_set_fs. Qed.
Lemma flushed_quiet w wr : quiet w -> quiet (flushed w wr).
Proof. intros Q. exact Q. Qed.
Lemma flushed_emptied w wr : flushed w (emptied wr) = w.
Proof. unfold flushed, emptied. cbn [wino wpend]. rewrite append_ino_nil_id. apply set_fs_id. Qed.

Lemma w_drop_quiet w wr : quiet w -> w_drop w wr = flushed w wr.
Proof. intros Q. unfold w_drop. rewrite w_flush_quiet_eq by exact Q. reflexivity. Qed.

Lemma flush_state_quiet c b w o wr p : quiet w ->
  flush_state {| f_cfg := c; f_inner := Active o wr p; f_poisoned := b |} w
  = (true, flushed w wr, {| f_cfg := c; f_inner := Active o (emptied wr) p; f_poisoned := b |}).
Proof. intros Q. unfold flush_state. cbn [f_inner]. rewrite w_flush_quiet_eq by exact Q. reflexivity. Qed.

(* State::shutdown also stops the cleanup thread: rs_bg becomes false *)
Definition no_bg (o : option rot_state) : option rot_state :=
  match o with
  | Some rs => Some {| rs_naming := rs_naming rs; rs_roll := rs_roll rs; rs_cleanup := rs_cleanup rs; rs_bg := false |}
  | None => None
  end.

Lemma shutdown_state_quiet c b w o wr p : quiet w ->
  shutdown_state {| f_cfg := c; f_inner := Active o wr p; f_poisoned := b |} w
  = (flushed w wr, {| f_cfg := c; f_inner := Active (no_bg o) (emptied wr) p; f_poisoned := b |}).
Proof. intros Q. unfold shutdown_state, drain_acts. cbn [f_inner]. rewrite w_flush_quiet_eq by exact Q. reflexivity. Qed.

(* two shutdowns and the drop of the boxed writer: only the first finds something to flush *)
Lemma drop_state_quiet c b w o wr p : quiet w ->
  drop_state {| f_cfg := c; f_inner := Active o wr p; f_poisoned := b |} w = flushed w wr.
Proof.
  intros Q. unfold drop_state. rewrite shutdown_state_quiet by exact Q.
  rewrite shutdown_state_quiet, flushed_emptied by exact (flushed_quiet w wr Q).
  cbn [f_inner]. rewrite w_drop_quiet, flushed_emptied by exact Q. reflexivity.
Qed.

(* the path is opened again for appending, as an unbuffered File; the old writer is dropped afterwards *)
Lemma reopen_state_quiet c b w o wr p : quiet w ->
  reopen_state {| f_cfg := c; f_inner := Active o wr p; f_poisoned := b |} w
  = (Ok tt, flushed (set_fs w (fst (open_append (wfs w) p (wnow w)))) wr,
     {| f_cfg := c; f_poisoned := b;
        f_inner := Active o {| wino := snd (open_append (wfs w) p (wnow w)); wpend := []; wcap := None |} p |}).
Proof.
  intros Q. unfold reopen_state. cbn [f_inner]. rewrite tick_quiet, effect_quiet_eq by exact Q.
  rewrite w_drop_quiet by exact Q. reflexivity.
Qed.

Lemma cap_eqb_refl a : cap_eqb a a = true.
Proof. destruct a as [n|]; cbn [cap_eqb]; [apply Nat.eqb_refl | reflexivity]. Qed.

(* reset(builder) with the same write mode: the old state is dropped without shutdown *)
Lemma reset_quiet x s c2 : s_flw x = Some s -> f_poisoned s = false -> quiet (s_w x) ->
  c_cap c2 = c_cap (f_cfg s) -> c_async c2 = c_async (f_cfg s) ->
  sync_step x (OReset c2)
  = ({| s_flw := Some (new_flw c2);
        s_w := match f_inner s with Active _ wr _ => flushed (s_w x) wr | Initial => s_w x end;
        s_tl := s_tl x; s_dead := s_dead x |}, ObsRes 0 false).
Proof.
  intros Es Hp Q Hcap Ha. cbn [sync_step]. rewrite Es, Hp, Hcap, Ha, cap_eqb_refl, Bool.eqb_reflx. cbn [andb negb].
  unfold drain_acts. destruct (f_inner s) as [|o wr p]; [reflexivity|]. rewrite w_drop_quiet by exact Q. reflexivity.
Qed.

Lemma sync_stop_flw x : s_flw (fst (sync_step x OStop)) = None.
Proof. cbn [sync_step]. destruct (s_flw x) eqn:E; [reflexivity | exact E]. Qed.

Lemma step_stop_flw x : s_flw (fst (step x OStop)) = None.
Proof.
  unfold step, step_core. destruct (s_flw (apply_start x OStop)) as [s|] eqn:E; [|apply sync_stop_flw].
  destruct (is_async s); apply sync_stop_flw.
Qed.

Lemma run_stop_flw x ops : s_flw (fst (run x (ops ++ [OStop]))) = None.
Proof.
  rewrite run_app. destruct (run x ops) as [x1 obs1]. cbn [run].
  pose proof (step_stop_flw x1) as F. destruct (step x1 OStop) as [x2 ob2]. exact F.
Qed.

Lemma mount_next_idle c w rs wr path force : force || rotation_necessary w (rs_roll rs) = false ->
  mount_next c w (Active (Some rs) wr path) force = (Ok tt, w, Active (Some rs) wr path).
Proof. intros H. unfold mount_next. rewrite H. reflexivity. Qed.
