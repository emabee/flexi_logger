(* Numbers naming, ASYNCHRONOUS write mode (c_async = true): the file contents do not depend on the write mode.

   How the model writes in this mode (Run.v): a log call (OWrite b), a raw chunk (OPlain b) and a flush are not
   executed by the caller; async_step turns them into a message (AData b, AFlush; AShutdown for shutdown / drop) and
   async_send hands it to the writer thread, which works it off at once (async_consume) - this is the scheduling
   assumption of the model and of the test harness, which synchronises the writer thread through schedule points:
   EVERY MESSAGE IS CONSUMED BEFORE THE NEXT OPERATION STARTS.  The writer thread executes
       AData b   -> Model.write_buffer s w b     (the same State::write_buffer as the synchronous handle, on the same
                                                  state; the bytes are b alone: the thread-local buffer s_tl of the
                                                  logging thread is not involved)
       AFlush    -> Model.flush_state s w
       AShutdown -> Model.shutdown_state s w, after which the thread is gone (s_dead = true).
   The writer inside the state is opened by Model.open_log_file with wcap := c_cap c, whatever c_async is: with
   c_cap c = Some n the writer thread writes through a BufWriter of capacity n, with c_cap c = None it writes to the
   File directly.  All theorems below hold for every c_cap.
   What the caller gets back (async_send): ObsRes 0 false, always - the send succeeded; the rotation flag that the
   synchronous write_buffer returns is dropped by async_consume, so the caller of an asynchronous writer never sees a
   rotation.  rotate() (OTrigger) is not a message: it is executed by the caller on the shared state (sync_step).
   OStop: the shutdown message is consumed (if the thread still runs), then the state is dropped (drop_state: two more
   shutdowns and the drop of the boxed writer).

   Consequence for the proofs: the abstract reader's view cannot be driven by the observed rotation flags (a_run of
   NumRun.v over the observations); it is driven by the rotation decisions the writer thread takes, which exist
   (arun_rel) and, for a size criterion, are the greedy rule (s_run). *)
Require Import FL.Base.Bytes FL.Base.BytesFacts FL.Base.PathName FL.Fs.Fs FL.Fs.FsFacts FL.Time.Civil FL.Time.TsFormat
  FL.Names.FileSpec FL.Names.NamesFacts FL.Flw.Model FL.Flw.ModelFacts FL.Flw.QuietFacts FL.Flw.NumFs FL.Flw.NumInv FL.Flw.Run FL.Flw.RunFacts
  FL.Flw.NumRun FL.Oracles.O_Flw FL.Flw.NumTheorems FL.Flw.NumCfg0.
Open Scope nat_scope.

(* the configurations covered: as numcfg, but asynchronous; any capacity *)
Definition numacfg (c : config) (crit : criterion) : Prop :=
  c_rot c = Some (crit, NNumbers, KNever) /\ fts (c_spec c) = false /\ c_symlink c = false /\ c_async c = true.

Lemma numacfg_numcfg0 c crit : numacfg c crit -> numcfg0 c crit.
Proof. intros [H1 [H2 [H3 _]]]. repeat split; assumption. Qed.

(* the invariant of the synchronous development (it does not mention the mode), and: the writer thread runs *)
Definition RelA (c : config) (crit : criterion) (x : sys) (a : aview) : Prop := Rel c crit x a /\ s_dead x = false.

(* bytes accepted by the writer but not yet handed to the file system *)
Definition pending (x : sys) : bytes :=
  match s_flw x with
  | Some s => match f_inner s with Active _ wr _ => wpend wr | Initial => [] end
  | None => []
  end.

Lemma pending_none x : s_flw x = None -> pending x = [].
Proof. intros E. unfold pending. rewrite E. reflexivity. Qed.

Lemma pending_initial x c : s_flw x = Some (new_flw c) -> pending x = [].
Proof. intros E. unfold pending. rewrite E. reflexivity. Qed.

Lemma pending_active x s o wr p : s_flw x = Some s -> f_inner s = Active o wr p -> pending x = wpend wr.
Proof. intros E Ei. unfold pending. rewrite E, Ei. reflexivity. Qed.

(* the directory already reads as the abstract view, and nothing is pending *)
Definition Flushed (c : config) (x : sys) (a : aview) : Prop :=
  pending x = [] /\
  match a with
  | None => names (wfs (s_w x)) = []
  | Some (closed, cur) => reader_view c (wfs (s_w x)) closed cur
  end.

(* what the caller of an asynchronous writer observes *)
Definition aobs (o : op) (ob : obs) : Prop :=
  match o with OSnap => exists fl l e, ob = ObsSnap fl l e | _ => ob = ObsRes 0%N false end.

Lemma rel_state c crit x a : Rel c crit x a -> exists s, s_flw x = Some s /\ f_cfg s = c /\ f_poisoned s = false.
Proof.
  intros [_ [_ R]]. destruct a as [[closed cur]|]; [destruct R as [wr [roll [Es _]]] | destruct R as [Es _]];
    rewrite Es; eexists; repeat split.
Qed.

Lemma rel_ext c crit x y a : Rel c crit x a -> s_flw y = s_flw x -> s_w y = s_w x -> s_tl y = s_tl x -> Rel c crit y a.
Proof. unfold Rel. intros R E1 E2 E3. rewrite E1, E2, E3. exact R. Qed.

(* a basic operation on a running asynchronous writer: messages for writes and flushes, the rest is executed by the
   caller *)
Lemma step_async_basic c crit x a o : numacfg c crit -> RelA c crit x a -> basic_op o ->
  exists s, s_flw x = Some s /\ f_cfg s = c /\ f_poisoned s = false /\
    step x o = match o with
               | OWrite b | OPlain b => (async_consume x s (AData b), ObsRes 0%N false)
               | OFlush => (async_consume x s AFlush, ObsRes 0%N false)
               | _ => sync_step x o
               end.
Proof.
  intros [_ [Hts [_ Has]]] [R Hd] Hb. destruct (rel_state c crit x a R) as [s [Es [Ec Hp]]].
  exists s. split; [exact Es|]. split; [exact Ec|]. split; [exact Hp|].
  rewrite step_plain by (intros s' Es'; rewrite Es in Es'; injection Es' as <-; rewrite Ec; exact Hts).
  unfold step_core. rewrite Es. unfold is_async. rewrite Ec, Has.
  destruct o; try contradiction; cbn [async_step]; unfold async_send; rewrite ?Hd, ?Hp; reflexivity.
Qed.

(* a data message *)
Lemma adata_rel c crit x a s b : numacfg c crit -> RelA c crit x a -> s_flw x = Some s ->
  exists rot, RelA c crit (async_consume x s (AData b)) (a_step a (OWrite b) rot)
    /\ (forall m, crit = CSize m -> rot = (m <? N.of_nat (length (cur_of a)))%N).
Proof.
  intros Hcfg [R Hd] Es.
  destruct (write_rel0 c crit x a b (numacfg_numcfg0 _ _ Hcfg) R) as [s0 [w' [s' [rot [Es0 [Hp [E [R' C]]]]]]]].
  rewrite Es in Es0. injection Es0 as <-.
  exists rot. split; [|exact C].
  unfold async_consume. rewrite E. split; [|reflexivity].
  eapply rel_ext; [exact R' | reflexivity | reflexivity |]. cbn [s_tl]. exact (proj1 R).
Qed.

(* a flush message *)
Lemma aflush_rel c crit x a s : numacfg c crit -> RelA c crit x a -> s_flw x = Some s ->
  RelA c crit (async_consume x s AFlush) a /\ Flushed c (async_consume x s AFlush) a.
Proof.
  intros Hcfg [[Ht [Ha R]] Hd] Es. destruct a as [[closed cur]|].
  - destruct R as [wr [roll [Es' [I [V [Z RS]]]]]]. rewrite Es in Es'. injection Es' as ->.
    destruct (flush_active c (s_w x) wr closed roll I) as [w' [wr' [E [I' [V' [P' S']]]]]].
    unfold async_consume. rewrite E. split.
    + split; [|reflexivity]. split; [exact Ht|]. split; [exact (same_env_acts _ _ S' Ha)|].
      exists wr', roll. cbn [s_flw s_w]. split; [reflexivity|]. split; [exact I'|]. split; [congruence|]. split; assumption.
    + split; [exact P'|]. cbn [s_w]. rewrite <- V, <- V'. apply numinv_reader_view; assumption.
  - destruct R as [Es' R]. rewrite Es in Es'. injection Es' as ->.
    unfold async_consume. cbn [new_flw flush_state f_inner]. split.
    + split; [|reflexivity]. split; [exact Ht|]. split; [exact Ha|]. split; [reflexivity | exact R].
    + split; [reflexivity|]. cbn [s_w]. apply R.
Qed.

(* one basic operation *)
Lemma astep_rel c crit x a o :
  numacfg c crit -> RelA c crit x a -> basic_op o ->
  exists rot,
    RelA c crit (fst (step x o)) (a_step a o rot)
    /\ (forall m, crit = CSize m -> a_step a o rot = a_step a o (m <? N.of_nat (length (cur_of a)))%N)
    /\ aobs o (snd (step x o))
    /\ (o = OFlush -> Flushed c (fst (step x o)) a).
Proof.
  intros Hcfg RA Hb. destruct (step_async_basic c crit x a o Hcfg RA Hb) as [s [Es [Ec [Hp Est]]]]. rewrite Est.
  pose proof (numacfg_numcfg0 _ _ Hcfg) as Hcfg0.
  destruct o; try contradiction; cbn [fst snd aobs].
  - (* OWrite *)
    destruct (adata_rel c crit x a s b Hcfg RA Es) as [rot [R' C]]. exists rot.
    split; [exact R'|]. split; [intros m Hm; rewrite (C m Hm); reflexivity|]. split; [reflexivity | discriminate].
  - (* OPlain *)
    destruct (adata_rel c crit x a s b Hcfg RA Es) as [rot [R' C]]. exists rot.
    split; [exact R'|]. split; [intros m Hm; rewrite (C m Hm); reflexivity|]. split; [reflexivity | discriminate].
  - (* OFlush *)
    destruct (aflush_rel c crit x a s Hcfg RA Es) as [R' F']. exists false.
    split; [exact R'|]. split; [reflexivity|]. split; [reflexivity | intros _; exact F'].
  - (* OTrigger: rotate() is executed by the caller *)
    exists false. cbn [sync_step]. destruct RA as [[Ht [Ha R]] Hd]. destruct a as [[closed cur]|].
    + destruct R as [wr [roll [Es' [I [V [Z RS]]]]]]. rewrite Es'. cbn [st_of f_poisoned f_cfg f_inner].
      destruct (lo_rotate _ _ _ _ num_write0 c crit (s_w x) wr closed roll true Hcfg0 I eq_refl) as [w' [wr' [roll' [E [I' [V' [Z' [S' K]]]]]]]].
      rewrite E. cbn [fst snd a_step code_of with_inner f_cfg f_poisoned].
      split; [|split; [reflexivity | split; [reflexivity | discriminate]]].
      split; [|exact Hd]. split; [exact Ht|]. split; [exact (same_env_acts _ _ S' Ha)|]. rewrite V in *. exists wr', roll'. cbn [s_flw s_w].
      split; [reflexivity|]. split; [exact I'|]. split; [exact V'|]. split; [exact Z' | exact (roll_kept_size _ _ _ _ _ K RS)].
    + destruct R as [Es' R]. rewrite Es'. cbn [new_flw f_poisoned f_cfg f_inner mount_next with_inner fst snd a_step code_of].
      split; [|split; [reflexivity | split; [reflexivity | discriminate]]].
      split; [|exact Hd]. split; [exact Ht|]. split; [exact Ha|]. split; [reflexivity | exact R].
  - (* OTick *)
    exists false. cbn [sync_step fst snd a_step].
    split; [|split; [reflexivity | split; [reflexivity | discriminate]]].
    destruct RA as [[Ht [Ha R]] Hd]. split; [|exact Hd]. split; [exact Ht|]. split; [exact Ha|]. destruct a as [[closed cur]|].
    + destruct R as [wr [roll [Es' [I [V [Z RS]]]]]]. exists wr, roll. cbn [s_flw s_w].
      split; [exact Es'|]. split; [apply (numinv_env c (s_w x)); [exact I | reflexivity | apply I]|].
      split; [exact V|]. split; assumption.
    + cbn [s_flw s_w]. exact R.
  - (* OSnap *)
    exists false. cbn [sync_step fst snd a_step].
    split; [exact RA|]. split; [reflexivity|]. split; [|discriminate]. unfold snapshot. eauto.
Qed.

(* a history of basic operations: the writer thread's rotation decisions rots exist; the state refines the abstract
   view they produce; for a size criterion that view is the greedy one; the caller sees no rotation *)
Lemma arun_rel c crit : numacfg c crit -> forall ops x a, RelA c crit x a -> Forall basic_op ops ->
  exists rots, length rots = length ops
    /\ RelA c crit (fst (run x ops)) (a_run a ops (List.map (ObsRes 0%N) rots))
    /\ (forall m, crit = CSize m -> a_run a ops (List.map (ObsRes 0%N) rots) = s_run m a ops)
    /\ Forall2 aobs ops (snd (run x ops)).
Proof.
  intros Hcfg. induction ops as [|o r IH]; intros x a R Hb.
  - exists []. split; [reflexivity|]. split; [exact R|]. split; [reflexivity | constructor].
  - inversion Hb as [|o' r' Ho Hr]; subst.
    destruct (astep_rel c crit x a o Hcfg R Ho) as [rot [R1 [C1 [O1 _]]]].
    cbn [run]. destruct (step x o) as [x1 ob]. cbn [fst snd] in R1, O1.
    destruct (IH x1 _ R1 Hr) as [rots [L [R2 [C2 O2]]]]. destruct (run x1 r) as [x2 obs]. cbn [fst snd] in *.
    exists (rot :: rots). cbn [List.map a_run rot_of length].
    split; [rewrite L; reflexivity|]. split; [exact R2|]. split; [|constructor; assumption].
    intros m Hm. rewrite (C2 m Hm), (C1 m Hm). reflexivity.
Qed.

(* ---- stop: the shutdown message, then the drop of the state ---- *)
Lemma astop_rel c crit x a : numacfg c crit -> RelA c crit x a ->
  match a with
  | None => names (wfs (s_w (fst (step x OStop)))) = []
  | Some (closed, cur) => reader_view c (wfs (s_w (fst (step x OStop)))) closed cur
  end
  /\ s_flw (fst (step x OStop)) = None /\ s_dead (fst (step x OStop)) = true /\ snd (step x OStop) = ObsRes 0%N false.
Proof.
  intros [_ [Hts [_ Has]]] [R0 Hd]. destruct (rel_state c crit x a R0) as [s [Es [Ec Hp]]].
  rewrite step_plain by (intros s' Es'; rewrite Es in Es'; injection Es' as <-; rewrite Ec; exact Hts).
  unfold step_core. rewrite Es. unfold is_async. rewrite Ec, Has, Hd, Hp. cbn [orb].
  destruct R0 as [Ht [Ha R]]. destruct a as [[closed cur]|].
  - destruct R as [wr [roll [Es' [I [V [Z RS]]]]]]. rewrite Es in Es'. injection Es' as ->.
    pose proof (ni_quiet _ _ _ _ I) as Q.
    unfold async_consume, st_of. rewrite shutdown_state_quiet by exact Q. cbn [s_flw s_w s_tl sync_step f_poisoned].
    rewrite drop_state_quiet by exact (flushed_quiet _ wr Q). cbn [s_w s_flw s_dead fst snd]. rewrite flushed_emptied.
    split; [|repeat split].
    destruct (numinv_append c (s_w x) (flushed (s_w x) wr) wr (emptied wr) closed (wpend wr) I (flushed_fs _ wr)
                (flushed_env _ wr Q) eq_refl eq_refl (wr_ok_nil _ _)) as [I1 C1].
    assert (EV : cur_view (flushed (s_w x) wr) (emptied wr) = cur).
    { rewrite <- V. unfold cur_view. rewrite C1. cbn [emptied wpend]. apply app_nil_r. }
    rewrite <- EV. apply numinv_reader_view; [exact I1 | reflexivity].
  - destruct R as [Es' [Q [Hn Hi]]]. rewrite Es in Es'. injection Es' as ->.
    unfold async_consume. cbn [new_flw shutdown_state f_inner s_flw s_w s_tl sync_step f_poisoned drop_state s_dead fst snd].
    split; [exact Hn | repeat split].
Qed.

Lemma astart_rel c crit t0 off : RelA c crit (fst (step (sys0 t0 off) (OStart c))) None.
Proof. cbn. repeat split. Qed.

Lemma astart_obs c t0 off : snd (step (sys0 t0 off) (OStart c)) = ObsRes 0%N false.
Proof. reflexivity. Qed.

(* ---- whole runs ---- *)
(* start, a history, stop *)
Lemma async_run_stop c crit t0 off ops :
  numacfg c crit -> Forall basic_op ops ->
  exists rots, length rots = length ops /\
    let a := a_run None ops (List.map (ObsRes 0%N) rots) in
    let r := run (sys0 t0 off) (OStart c :: ops ++ [OStop]) in
    reads c (wfs (s_w (fst r))) (files_of a)
    /\ (forall m, crit = CSize m -> a = s_run m None ops)
    /\ s_flw (fst r) = None /\ s_dead (fst r) = true
    /\ Forall2 aobs (OStart c :: ops ++ [OStop]) (snd r).
Proof.
  intros Hcfg Hb. cbn [run]. pose proof (astart_rel c crit t0 off) as R0. pose proof (astart_obs c t0 off) as O0.
  destruct (step (sys0 t0 off) (OStart c)) as [x0 ob0]. cbn [fst snd] in R0, O0.
  rewrite run_app. destruct (arun_rel c crit Hcfg ops x0 None R0 Hb) as [rots [L [R1 [C1 O1]]]].
  destruct (run x0 ops) as [x1 obs1]. cbn [fst snd] in *.
  destruct (astop_rel c crit x1 _ Hcfg R1) as [S [SF [SD SO]]]. cbn [run]. destruct (step x1 OStop) as [x2 ob2]. cbn [fst snd] in *.
  exists rots. split; [exact L|]. cbn zeta.
  split; [apply files_of_reads; exact S|]. split; [exact C1|]. split; [exact SF|]. split; [exact SD|].
  constructor; [exact O0|]. apply Forall2_app; [exact O1|]. constructor; [exact SO | constructor].
Qed.

(* start, a history, a flush (the flush message is consumed before anything else happens) *)
Lemma async_run_flush c crit t0 off ops :
  numacfg c crit -> Forall basic_op ops ->
  exists rots, length rots = length ops /\
    let a := a_run None ops (List.map (ObsRes 0%N) rots) in
    let x := fst (run (sys0 t0 off) (OStart c :: ops ++ [OFlush])) in
    RelA c crit x a /\ Flushed c x a /\ (forall m, crit = CSize m -> a = s_run m None ops).
Proof.
  intros Hcfg Hb. cbn [run]. pose proof (astart_rel c crit t0 off) as R0.
  destruct (step (sys0 t0 off) (OStart c)) as [x0 ob0]. cbn [fst] in R0.
  rewrite run_app. destruct (arun_rel c crit Hcfg ops x0 None R0 Hb) as [rots [L [R1 [C1 O1]]]].
  destruct (run x0 ops) as [x1 obs1]. cbn [fst snd] in *.
  destruct (astep_rel c crit x1 _ OFlush Hcfg R1 Logic.I) as [rot [R2 [_ [_ F2]]]]. specialize (F2 eq_refl).
  cbn [run]. destruct (step x1 OFlush) as [x2 ob2]. cbn [fst a_step] in *.
  exists rots. split; [exact L|]. cbn zeta. split; [exact R2|]. split; [exact F2 | exact C1].
Qed.

Lemma files_flat a : concat (files_of a) = flat a.
Proof. destruct a as [[cl cu]|]; cbn [files_of flat concat]; [|reflexivity]. rewrite concat_app. cbn [concat]. rewrite app_nil_r. reflexivity. Qed.

(* 1. the stream: any criterion, any capacity.  After the writer has been dropped the files r00000.., rCURRENT hold,
   in this order, a partition of exactly the bytes written - the statement of numbers_stream, for the asynchronous mode *)
Theorem async_numbers_stream c crit t0 off ops :
  numacfg c crit -> Forall basic_op ops ->
  exists files, reads c (wfs (s_w (fst (run (sys0 t0 off) (OStart c :: ops ++ [OStop]))))) files
    /\ concat files = written ops.
Proof.
  intros Hcfg Hb. destruct (async_run_stop c crit t0 off ops Hcfg Hb) as [rots [L [S _]]].
  eexists. split; [exact S|]. rewrite files_flat, a_run_flat; [reflexivity | exact Hb | rewrite map_length; exact L].
Qed.

(* 2. size criterion: the files are the greedy partition - the statement of numbers_partition *)
Theorem async_numbers_partition c m t0 off ops :
  numacfg c (CSize m) -> Forall basic_op ops ->
  reads c (wfs (s_w (fst (run (sys0 t0 off) (OStart c :: ops ++ [OStop]))))) (expected_files m None (items false ops)).
Proof.
  intros Hcfg Hb. destruct (async_run_stop c (CSize m) t0 off ops Hcfg Hb) as [rots [L [S [C _]]]]. cbn zeta in S, C.
  rewrite (C m eq_refl) in S. rewrite s_run_none in S by assumption. exact S.
Qed.

(* hence: an asynchronous and a synchronous (Direct or buffered) writer leave, after the same operations, directories
   that read as the same list of files *)
Theorem async_sync_same_files ca cs m t0 off ops :
  numacfg ca (CSize m) -> numcfg cs (CSize m) -> Forall basic_op ops ->
  exists files,
    reads ca (wfs (s_w (fst (run (sys0 t0 off) (OStart ca :: ops ++ [OStop]))))) files
    /\ reads cs (wfs (s_w (fst (run (sys0 t0 off) (OStart cs :: ops ++ [OStop]))))) files.
Proof.
  intros Ha Hs Hb. exists (expected_files m None (items false ops)).
  split; [apply async_numbers_partition | apply numbers_partition]; assumption.
Qed.

(* two asynchronous writers of different capacities *)
Theorem async_async_same_files c1 c2 m t0 off ops :
  numacfg c1 (CSize m) -> numacfg c2 (CSize m) -> Forall basic_op ops ->
  exists files,
    reads c1 (wfs (s_w (fst (run (sys0 t0 off) (OStart c1 :: ops ++ [OStop]))))) files
    /\ reads c2 (wfs (s_w (fst (run (sys0 t0 off) (OStart c2 :: ops ++ [OStop]))))) files.
Proof.
  intros H1 H2 Hb. exists (expected_files m None (items false ops)). split; apply async_numbers_partition; assumption.
Qed.

(* 3. what the caller observes: every operation except a snapshot returns "ok, no rotation" - in particular every
   write, also those at which the writer thread rotates; after the drop there is no writer, the thread is gone and
   nothing is pending *)
Theorem async_observations c crit t0 off ops :
  numacfg c crit -> Forall basic_op ops ->
  let r := run (sys0 t0 off) (OStart c :: ops ++ [OStop]) in
  Forall2 aobs (OStart c :: ops ++ [OStop]) (snd r)
  /\ s_flw (fst r) = None /\ s_dead (fst r) = true /\ pending (fst r) = [].
Proof.
  intros Hcfg Hb. destruct (async_run_stop c crit t0 off ops Hcfg Hb) as [rots [L [_ [_ [SF [SD O]]]]]]. cbn zeta in *.
  split; [exact O|]. split; [exact SF|]. split; [exact SD | exact (pending_none _ SF)].
Qed.

(* the i-th operation of the history, when it is a write or a raw chunk or a flush, returns ObsRes 0 false *)
Corollary async_write_obs c crit t0 off ops i o :
  numacfg c crit -> Forall basic_op ops -> nth_error ops i = Some o -> o <> OSnap ->
  nth_error (snd (run (sys0 t0 off) (OStart c :: ops ++ [OStop]))) (S i) = Some (ObsRes 0%N false).
Proof.
  intros Hcfg Hb Hi Hs. destruct (async_observations c crit t0 off ops Hcfg Hb) as [O _]. cbn zeta in O.
  remember (snd (run (sys0 t0 off) (OStart c :: ops ++ [OStop]))) as lobs eqn:El. clear El.
  inversion O as [|o0 ob0 l0 obs Ho0 O' E1 E2]; subst. cbn [nth_error].
  assert (G : forall l l' k, Forall2 aobs l l' -> nth_error l k = Some o -> exists ob, nth_error l' k = Some ob /\ aobs o ob).
  { clear. induction l as [|y l IH]; intros l' k F Hk; [destruct k; discriminate|].
    inversion F as [|y0 ob0 l0 l'0 Hy F' E1 E2]; subst. destruct k as [|k]; cbn [nth_error] in *.
    - injection Hk as ->. eauto.
    - apply (IH _ _ F' Hk). }
  destruct (G _ _ i O') as [ob [E A]]. { rewrite nth_error_app1; [exact Hi|]. apply nth_error_Some. congruence. }
  rewrite E. f_equal. destruct o; try exact A. contradiction.
Qed.

(* 4. durability.  (a) flush: once the flush message has been consumed - in the model and in the test harness that is
   before the next operation starts; this is the scheduling assumption, the code itself gives the caller of flush() no
   acknowledgement - the directory holds everything accepted so far, as files whose concatenation is the written
   bytes (for a size criterion: the greedy partition), no byte is pending in the writer, and the writer thread is
   still running *)
Theorem async_flush_durable c crit t0 off ops :
  numacfg c crit -> Forall basic_op ops ->
  let x := fst (run (sys0 t0 off) (OStart c :: ops ++ [OFlush])) in
  exists files, reads c (wfs (s_w x)) files /\ concat files = written ops
    /\ pending x = [] /\ s_dead x = false
    /\ (forall m, crit = CSize m -> files = expected_files m None (items false ops)).
Proof.
  intros Hcfg Hb. destruct (async_run_flush c crit t0 off ops Hcfg Hb) as [rots [L [R [[P F] C]]]]. cbn zeta in *.
  eexists. split; [apply files_of_reads; exact F|].
  split; [rewrite files_flat, a_run_flat; [reflexivity | exact Hb | rewrite map_length; exact L]|].
  split; [exact P|]. split; [exact (proj2 R)|].
  intros m Hm. rewrite (C m Hm). apply s_run_none. exact Hb.
Qed.

(* (b) shutdown + drop of the handle *)
Theorem async_stop_durable c crit t0 off ops :
  numacfg c crit -> Forall basic_op ops ->
  let x := fst (run (sys0 t0 off) (OStart c :: ops ++ [OStop])) in
  exists files, reads c (wfs (s_w x)) files /\ concat files = written ops
    /\ pending x = [] /\ s_flw x = None /\ s_dead x = true
    /\ (forall m, crit = CSize m -> files = expected_files m None (items false ops)).
Proof.
  intros Hcfg Hb. destruct (async_run_stop c crit t0 off ops Hcfg Hb) as [rots [L [S [C [SF [SD _]]]]]]. cbn zeta in *.
  eexists. split; [exact S|].
  split; [rewrite files_flat, a_run_flat; [reflexivity | exact Hb | rewrite map_length; exact L]|].
  split; [exact (pending_none _ SF)|]. split; [exact SF|]. split; [exact SD|].
  intros m Hm. rewrite (C m Hm). apply s_run_none. exact Hb.
Qed.

(* ---- the same flush statement for the synchronous modes (Direct and buffered), for comparison ---- *)
Lemma sync_flush_rel c crit x a : numcfg c crit -> Rel c crit x a ->
  Rel c crit (fst (step x OFlush)) a /\ Flushed c (fst (step x OFlush)) a.
Proof.
  intros Hcfg R0. rewrite (step_sync_rel c crit x a OFlush Hcfg R0). cbn [sync_step].
  destruct R0 as [Ht [Ha R]]. destruct a as [[closed cur]|].
  - destruct R as [wr [roll [Es [I [V [Z RS]]]]]]. rewrite Es. cbn [st_of f_poisoned].
    destruct (flush_active c (s_w x) wr closed roll I) as [w' [wr' [E [I' [V' [P' S']]]]]].
    fold (st_of c (length closed) roll wr). rewrite E. cbn [fst]. split.
    + split; [exact Ht|]. split; [exact (same_env_acts _ _ S' Ha)|]. exists wr', roll. cbn [s_flw s_w].
      split; [reflexivity|]. split; [exact I'|]. split; [congruence|]. split; assumption.
    + split; [exact P'|]. cbn [s_w]. rewrite <- V, <- V'. apply numinv_reader_view; assumption.
  - destruct R as [Es R]. rewrite Es. cbn [new_flw f_poisoned flush_state f_inner fst]. split.
    + split; [exact Ht|]. split; [exact Ha|]. split; [reflexivity | exact R].
    + split; [apply (pending_initial _ c); reflexivity|]. cbn [s_w]. apply R.
Qed.

Theorem sync_flush_durable c crit t0 off ops :
  numcfg c crit -> Forall basic_op ops ->
  let x := fst (run (sys0 t0 off) (OStart c :: ops ++ [OFlush])) in
  exists files, reads c (wfs (s_w x)) files /\ concat files = written ops
    /\ pending x = []
    /\ (forall m, crit = CSize m -> files = expected_files m None (items false ops)).
Proof.
  intros Hcfg Hb. cbn zeta. cbn [run]. destruct (step (sys0 t0 off) (OStart c)) as [x0 ob0] eqn:E0.
  pose proof (start_rel c crit t0 off) as R0. rewrite E0 in R0. cbn [fst] in R0.
  rewrite run_app. pose proof (run_rel c crit Hcfg ops x0 None R0 Hb) as R1. pose proof (run_length ops x0) as L.
  assert (HS : forall m, crit = CSize m -> a_run None ops (snd (run x0 ops)) = s_run m None ops).
  { intros m Hm. subst crit. apply (run_size c m Hcfg ops x0 None R0 Hb). }
  destruct (run x0 ops) as [x1 obs1]. cbn [fst snd] in *.
  destruct (sync_flush_rel c crit x1 _ Hcfg R1) as [_ [P F]]. cbn [run]. destruct (step x1 OFlush) as [x2 ob2]. cbn [fst] in *.
  exists (files_of (a_run None ops obs1)). split; [apply files_of_reads; exact F|].
  split; [rewrite files_flat, a_run_flat; [reflexivity | exact Hb | exact L]|].
  split; [exact P|]. intros m Hm. rewrite (HS m Hm). apply s_run_none. exact Hb.
Qed.

(* flushed directories agree across the modes *)
Theorem async_sync_same_files_flushed ca cs m t0 off ops :
  numacfg ca (CSize m) -> numcfg cs (CSize m) -> Forall basic_op ops ->
  let xa := fst (run (sys0 t0 off) (OStart ca :: ops ++ [OFlush])) in
  let xs := fst (run (sys0 t0 off) (OStart cs :: ops ++ [OFlush])) in
  exists files, reads ca (wfs (s_w xa)) files /\ reads cs (wfs (s_w xs)) files /\ pending xa = [] /\ pending xs = [].
Proof.
  intros Ha Hs Hb. cbn zeta.
  destruct (async_flush_durable ca (CSize m) t0 off ops Ha Hb) as [fa [Ra [_ [Pa [_ Ca]]]]].
  destruct (sync_flush_durable cs (CSize m) t0 off ops Hs Hb) as [fs [Rs [_ [Ps Cs]]]]. cbn zeta in *.
  exists (expected_files m None (items false ops)). rewrite <- (Ca m eq_refl) at 1. rewrite <- (Cs m eq_refl).
  repeat split; assumption.
Qed.

(* ---- the limit of the mode independence: shutdown() without drop (OShutdown is not a basic operation) ----
   once the writer thread has ended, a log call still returns Ok (the failed send is ignored) and the record is lost:
   the world is unchanged.  A synchronous writer keeps writing after shutdown() (State::shutdown only flushes). *)
Lemma async_dead_write_lost x s b :
  s_flw x = Some s -> c_async (f_cfg s) = true -> s_dead x = true ->
  s_w (fst (step x (OWrite b))) = s_w x /\ snd (step x (OWrite b)) = ObsRes 0%N false.
Proof.
  intros Es Ha Hd. unfold step, apply_start. rewrite Es.
  assert (Ea : forall w, c_async (f_cfg (ensure_start s w)) = true).
  { intros w. unfold ensure_start. destruct (fts (c_spec (f_cfg s))); [|exact Ha]. destruct (c_start (f_cfg s)); exact Ha. }
  destruct (names_computed (OWrite b) && negb (f_poisoned s)).
  - unfold step_core. cbn [s_flw]. unfold is_async. rewrite Ea. cbn [async_step]. unfold async_send. cbn [s_dead]. rewrite Hd.
    split; reflexivity.
  - unfold step_core. rewrite Es. unfold is_async. rewrite Ha. cbn [async_step]. unfold async_send. rewrite Hd. split; reflexivity.
Qed.

Section Examples.
Open Scope N_scope.
(* a_rCURRENT.log / a_r0000i.log, rotation when the current file holds more than 3 bytes *)
Definition ex_mode (cap : option nat) (async : bool) : config :=
  {| c_spec := {| fbase := [97]; fdisc := None; fts := false; fsfx := Some [108; 111; 103] |};
     c_append := false; c_cap := cap; c_rot := Some (CSize 3, NNumbers, KNever); c_utc := false;
     c_symlink := false; c_bg := false; c_async := async; c_start := None |}.
Definition ex_direct := ex_mode None false.
Definition ex_buffered := ex_mode (Some 4%nat) false.
Definition ex_async := ex_mode (Some 4%nat) true.        (* the writer thread writes through a BufWriter of 4 bytes *)
Definition ex_async_unbuffered := ex_mode None true.

Definition ex_hist : list op :=
  [OWrite [1;2;3;10]; OWrite [4;10]; OSnap; OFlush; OSnap; OTrigger; OPlain [5]; OWrite [6;7;8;9;10]; OWrite [11]].

(* the hypotheses are satisfiable *)
Example ex_hyps :
  numcfg ex_direct (CSize 3) /\ numcfg ex_buffered (CSize 3) /\ numacfg ex_async (CSize 3)
  /\ numacfg ex_async_unbuffered (CSize 3) /\ Forall basic_op ex_hist.
Proof. repeat split; repeat constructor. Qed.

(* the directory after the history and the drop of the writer *)
Definition final_dir (c : config) (ops : list op) : obs :=
  last (snd (run (sys0 0 0) (OStart c :: ops ++ [OStop; OSnap]))) (ObsRes 9 false).

Definition ex_dir : obs :=
  ObsSnap [([97; 95; 114; 48; 48; 48; 48; 48; 46; 108; 111; 103], 0, [1; 2; 3; 10]);
           ([97; 95; 114; 48; 48; 48; 48; 49; 46; 108; 111; 103], 0, [4; 10]);
           ([97; 95; 114; 48; 48; 48; 48; 50; 46; 108; 111; 103], 0, [5; 6; 7; 8; 9; 10]);
           ([97; 95; 114; 67; 85; 82; 82; 69; 78; 84; 46; 108; 111; 103], 0, [11])] None [].

Example ex_dir_direct : final_dir ex_direct ex_hist = ex_dir.                    Proof. vm_compute. reflexivity. Qed.
Example ex_dir_buffered : final_dir ex_buffered ex_hist = ex_dir.                Proof. vm_compute. reflexivity. Qed.
Example ex_dir_async : final_dir ex_async ex_hist = ex_dir.                      Proof. vm_compute. reflexivity. Qed.
Example ex_dir_async_unbuffered : final_dir ex_async_unbuffered ex_hist = ex_dir. Proof. vm_compute. reflexivity. Qed.
Example ex_dir_expected : expected_files 3 None (items false ex_hist) = [[1;2;3;10]; [4;10]; [5;6;7;8;9;10]; [11]].
Proof. vm_compute. reflexivity. Qed.

(* what differs is what the caller is told and what is on the disk BEFORE a flush.  The rotation flags: *)
Definition rots_seen (c : config) (ops : list op) : list bool :=
  List.map rot_of (snd (run (sys0 0 0) (OStart c :: ops ++ [OStop]))).
Example ex_flags_buffered : rots_seen ex_buffered ex_hist
  = [false; false; true; false; false; false; false; false; false; true; false]%bool.
Proof. vm_compute. reflexivity. Qed.
Example ex_flags_async : rots_seen ex_async ex_hist
  = [false; false; false; false; false; false; false; false; false; false; false]%bool.
Proof. vm_compute. reflexivity. Qed.

(* the first snapshot (before the flush) and the second (after it): with a BufWriter of 4 bytes the record [4;10]
   is still pending at the first one - in buffered and in asynchronous mode alike - and on the disk at the second *)
Definition snaps (c : config) (ops : list op) : list obs :=
  List.filter (fun ob => match ob with ObsSnap _ _ _ => true | _ => false end) (snd (run (sys0 0 0) (OStart c :: ops))).
Definition ex_snap (cur : bytes) : obs :=
  ObsSnap [([97; 95; 114; 48; 48; 48; 48; 48; 46; 108; 111; 103], 0, [1; 2; 3; 10]);
           ([97; 95; 114; 67; 85; 82; 82; 69; 78; 84; 46; 108; 111; 103], 0, cur)] None [].
Example ex_snaps_direct : snaps ex_direct ex_hist = [ex_snap [4;10]; ex_snap [4;10]].     Proof. vm_compute. reflexivity. Qed.
Example ex_snaps_buffered : snaps ex_buffered ex_hist = [ex_snap []; ex_snap [4;10]].     Proof. vm_compute. reflexivity. Qed.
Example ex_snaps_async : snaps ex_async ex_hist = [ex_snap []; ex_snap [4;10]].           Proof. vm_compute. reflexivity. Qed.
Example ex_snaps_async_unbuffered : snaps ex_async_unbuffered ex_hist = [ex_snap [4;10]; ex_snap [4;10]].
Proof. vm_compute. reflexivity. Qed.

(* FINDING (outside the theorems: OShutdown is not a basic operation).  shutdown() without dropping the writer, then
   more log calls: the synchronous writer writes them; the asynchronous one has no writer thread any more, the log
   call nevertheless returns Ok (code 0) and the record [2;10] is lost (async_dead_write_lost); the raw chunk [3]
   returns an error (code 1).  With OShutdown in the history the file contents DO depend on the write mode. *)
Definition ex_hist_shutdown : list op := [OWrite [1;10]; OShutdown; OWrite [2;10]; OPlain [3]; OFlush].
Example ex_shutdown_direct : final_dir ex_direct ex_hist_shutdown
  = ObsSnap [([97; 95; 114; 48; 48; 48; 48; 48; 46; 108; 111; 103], 0, [1; 10; 2; 10]);
             ([97; 95; 114; 67; 85; 82; 82; 69; 78; 84; 46; 108; 111; 103], 0, [3])] None [].
Proof. vm_compute. reflexivity. Qed.
Example ex_shutdown_async : final_dir ex_async_unbuffered ex_hist_shutdown
  = ObsSnap [([97; 95; 114; 67; 85; 82; 82; 69; 78; 84; 46; 108; 111; 103], 0, [1; 10])] None [].
Proof. vm_compute. reflexivity. Qed.
Example ex_shutdown_codes :
  snd (run (sys0 0 0) (OStart ex_direct :: ex_hist_shutdown ++ [OStop]))
  = [ObsRes 0 false; ObsRes 0 false; ObsRes 0 false; ObsRes 0 false; ObsRes 0 true; ObsRes 0 false; ObsRes 0 false]
  /\ snd (run (sys0 0 0) (OStart ex_async_unbuffered :: ex_hist_shutdown ++ [OStop]))
  = [ObsRes 0 false; ObsRes 0 false; ObsRes 0 false; ObsRes 0 false; ObsRes 1 false; ObsRes 0 false; ObsRes 0 false].
Proof. split; vm_compute; reflexivity. Qed.
End Examples.

Print Assumptions async_numbers_stream.
Print Assumptions async_numbers_partition.
Print Assumptions async_sync_same_files.
Print Assumptions async_async_same_files.
Print Assumptions async_observations.
Print Assumptions async_write_obs.
Print Assumptions async_flush_durable.
Print Assumptions async_stop_durable.
Print Assumptions sync_flush_durable.
Print Assumptions async_sync_same_files_flushed.
Print Assumptions async_dead_write_lost.
