(* Timestamps naming (rCURRENT + r<time stamp>[.restart-NNNN]), direct mode (no user-space buffer), a process that is killed at
   an arbitrary effect: no acknowledged record is lost, nothing else is in the files.

   A rotation of Timestamps naming has TWO effects - the rename of rCURRENT to the name of its birth second (made
   collision-free by two directory listings, which are no effects), and the creation of the new rCURRENT -, as for Numbers
   naming (NumKill.v).  A kill between the two leaves a directory WITHOUT rCURRENT: all files are closed files.  The kill
   counter, `acked`, `with_w`, the dead process: NumKill.v / KillFacts.v; the clock after the death: KillEnv.v. *)
Require Import FL.Base.Bytes FL.Base.BytesFacts FL.Base.PathName FL.Fs.Fs FL.Fs.FsFacts FL.Time.TsFormat
  FL.Names.FileSpec FL.Names.SortFacts FL.Flw.Model FL.Flw.ModelFacts FL.Flw.NumFs FL.Flw.NumInv
  FL.Flw.Run FL.Flw.NumRun FL.Flw.NumListing FL.Flw.NumTheorems FL.Flw.NumRestart
  FL.Flw.KillFacts FL.Flw.NumKill FL.Flw.NumKillRestart
  FL.Flw.TsTime FL.Flw.TsNames FL.Flw.TsInv FL.Flw.TsRun FL.Flw.TsTheorems FL.Flw.TsRestartInv FL.Flw.TsRestart
  FL.Flw.KillEnv.
From Coq Require Import ZifyN ZifyNat ZifyBool.
Import String.StringSyntax.
Open Scope nat_scope.

(* ------------------------------------------------------------------ the directory without rCURRENT *)
(* exactly the closed files, named by their keys *)
Record NoCurInv (c : config) (e lo : Z) (w : world) (keys : list key) (closed : list bytes) : Prop := {
  nc_quiet : quiet w;
  nc_wf : fs_wf (wfs w);
  nc_nodup : NoDup (dir_names (wfs w));
  nc_off : eoff c w = e;
  nc_nocur : lookup (wfs w) (cname c) = None;
  nc_len : length keys = length closed;
  nc_closed : forall i, i < length closed ->
      exists j, lookup (wfs w) (kname c e (nth i keys kd)) = Some j /\ plain (inode (wfs w) j) /\ content (wfs w) j = nth i closed [];
  nc_only : forall n j, lookup (wfs w) n = Some j -> exists i, i < length closed /\ n = kname c e (nth i keys kd);
  nc_keys : keys_ok keys;
  nc_range : forall k, In k keys -> (lo <= fst k <= wnow w)%Z;
  nc_lo : (lo <= wnow w)%Z }.

Lemma nocur_dir c e lo w keys closed : NoCurInv c e lo w keys closed -> dir_is c e (wfs w) keys.
Proof.
  intros [Q W Hnd Hoff Hnc Hlen Hcl Hon Hko Hrg Hlo]. split.
  - intros k Ik. destruct (In_nth keys k kd Ik) as [i [Hi E]]. rewrite Hlen in Hi.
    destruct (Hcl i Hi) as [j [Lj [[_ Pd] _]]]. rewrite E in Lj. eauto.
  - intros n j L. destruct (Hon n j L) as [i [Hi ->]]. right.
    exists (nth i keys kd). split; [apply nth_In; rewrite Hlen; exact Hi | reflexivity].
Qed.

Lemma nocur_later c e lo q q' keys closed : NoCurInv c e lo q keys closed ->
  wfs q' = wfs q -> quiet q' -> (wnow q <= wnow q')%Z -> eoff c q' = e -> NoCurInv c e lo q' keys closed.
Proof.
  intros [Q W Hnd Hoff Hnc Hlen Hcl Hon Hko Hrg Hlo] F Q' N' E'. constructor; try rewrite F; try assumption.
  - intros k Ik. specialize (Hrg k Ik). lia.
  - lia.
Qed.

(* the rename of a rotation: rCURRENT (born in the second ts) becomes the closed file of the key (ts, count ts keys) *)
Lemma rename_nocur c e lo hi q wr keys closed ts f1 :
  TsInv c e lo q wr keys closed ts -> wpend wr = [] -> years_ok e lo hi -> (wnow q <= hi)%Z ->
  rename (wfs q) (cname c) (kname c e (ts, count ts keys)) = Some f1 ->
  forall q1, quiet q1 -> wfs q1 = f1 -> eoff c q1 = e -> wnow q1 = wnow q ->
  NoCurInv c e lo q1 (keys ++ [(ts, count ts keys)]) (closed ++ [cur_view q wr]).
Proof.
  intros I Hp Y Hhi Er q1 Q1 F1 Ho1 N1.
  pose proof I as [Q W Hnd Hoff Hc Hcp Hlen Hcl Hon Hko Hrg Htsr Hwr Hcap].
  assert (Yk : forall k, In k keys -> in_years e (fst k)).
  { intros k Ik. apply (years_in e lo hi); [exact Y|]. specialize (Hrg k Ik). lia. }
  assert (Yts : in_years e ts) by (apply (years_in e lo hi); [exact Y | lia]).
  set (knew := (ts, count ts keys)) in *.
  destruct (rename_spec (wfs q) (cname c) (kname c e knew) (wino wr) (fun E => kname_not_cname c e knew Yts (eq_sym E)) Hc)
    as [f' [E [Hino [Lt [Lc Lo]]]]].
  rewrite Er in E. injection E as <-.
  assert (In1 : forall j, inode f1 j = inode (wfs q) j) by (intros j; unfold inode; rewrite Hino; reflexivity).
  assert (Ecur : cur_view q wr = content (wfs q) (wino wr)) by (unfold cur_view; rewrite Hp, app_nil_r; reflexivity).
  constructor.
  - exact Q1.
  - rewrite F1. exact (wf_rename _ _ _ _ W Er).
  - rewrite F1. exact (rename_nodup _ _ _ _ Hnd Er).
  - exact Ho1.
  - rewrite F1. exact Lc.
  - rewrite !app_length, Hlen. reflexivity.
  - intros i Hi. rewrite app_length in Hi. cbn [length] in Hi. rewrite F1.
    destruct (Nat.eq_dec i (length closed)) as [->|Hne].
    + exists (wino wr). rewrite app_nth2, Hlen, Nat.sub_diag by lia. cbn [nth]. split; [exact Lt|]. split; [rewrite In1; exact Hcp|].
      unfold content. rewrite In1, app_nth2, Nat.sub_diag by lia. cbn [nth]. rewrite Ecur. reflexivity.
    + assert (Hi' : i < length closed) by lia. destruct (Hcl i Hi') as [j [Lj [Pj [Cj _]]]]. exists j.
      assert (Ik : In (nth i keys kd) keys) by (apply nth_In; lia).
      rewrite (app_nth1 keys _ kd) by lia.
      rewrite Lo; [|apply kname_not_cname, Yk, Ik |].
      2:{ intros E. apply kname_inj in E; [|apply Yk, Ik | exact Yts]. rewrite E in Ik. apply (keys_count keys Hko) in Ik. lia. }
      split; [exact Lj|]. split; [rewrite In1; exact Pj|]. unfold content. rewrite In1, app_nth1 by assumption. exact Cj.
  - intros n j Hn. rewrite F1 in Hn.
    destruct (beq_spec n (kname c e knew)) as [->|Hn2].
    + exists (length closed). rewrite app_length. cbn [length]. split; [lia|].
      rewrite app_nth2, Hlen, Nat.sub_diag by lia. reflexivity.
    + destruct (beq_spec n (cname c)) as [->|Hn1]; [rewrite Lc in Hn; discriminate|].
      rewrite Lo in Hn by assumption. destruct (Hon _ _ Hn) as [E|[i [Hi E]]]; [contradiction|].
      exists i. rewrite app_length. cbn [length]. split; [lia|]. rewrite (app_nth1 keys _ kd) by lia. exact E.
  - apply ko_snoc; [exact Hko|]. intros k Ik. specialize (Hrg k Ik). lia.
  - rewrite N1. intros k Ik. apply in_app_or in Ik. destruct Ik as [Ik|[<-|[]]].
    + specialize (Hrg k Ik). lia.
    + unfold knew. cbn [fst]. lia.
  - rewrite N1. lia.
Qed.

(* the creation of rCURRENT in a directory without one: the invariant of a writer whose current file is empty and was born now *)
Lemma create_nocur c e lo q keys closed :
  NoCurInv c e lo q keys closed ->
  forall q3, quiet q3 -> eoff c q3 = e -> wnow q3 = wnow q ->
    wfs q3 = fst (create_file (wfs q) (cname c) 0%N (wnow q)) ->
    TsInvB c e lo q3 {| wino := snd (create_file (wfs q) (cname c) 0%N (wnow q)); wpend := []; wcap := c_cap c |} keys closed (wnow q)
    /\ cur_view q3 {| wino := snd (create_file (wfs q) (cname c) 0%N (wnow q)); wpend := []; wcap := c_cap c |} = [].
Proof.
  intros [Q W Hnd Hoff Hnc Hlen Hcl Hon Hko Hrg Hlo] q3 Q3 Ho3 N3 F3.
  pose proof (create_file_spec (wfs q) (cname c) 0%N (wnow q)) as S. pose proof (wf_create (wfs q) (cname c) 0%N (wnow q) W Hnc) as W2.
  pose proof (create_nodup (wfs q) (cname c) 0%N (wnow q) Hnd Hnc) as Nd2.
  destruct (create_file (wfs q) (cname c) 0%N (wnow q)) as [f2 new]. cbn [fst snd] in *. destruct S as [-> [Hino2 [L2c L2o]]].
  assert (Inew : inode f2 (length (inodes (wfs q))) = fresh_file (wnow q)).
  { unfold inode. rewrite Hino2, inode_app_new. reflexivity. }
  assert (Iold : forall j, j < length (inodes (wfs q)) -> inode f2 j = inode (wfs q) j).
  { intros j Hj. unfold inode. rewrite Hino2, inode_app_old by assumption. reflexivity. }
  set (wr' := {| wino := length (inodes (wfs q)); wpend := []; wcap := c_cap c |}).
  split; [split|].
  - constructor.
    + exact Q3.
    + rewrite F3. exact W2.
    + rewrite F3. exact Nd2.
    + exact Ho3.
    + rewrite F3. exact L2c.
    + rewrite F3. cbn [wr' wino]. rewrite Inew. split; reflexivity.
    + exact Hlen.
    + intros i Hi. destruct (Hcl i Hi) as [j [Lj [Pj Cj]]]. pose proof (wf_bound _ W _ _ Lj) as Hj. exists j. rewrite F3.
      rewrite L2o by (intros E; rewrite E, Hnc in Lj; discriminate).
      split; [exact Lj|]. unfold content. rewrite (Iold j Hj). split; [exact Pj|]. split; [exact Cj|]. cbn [wr' wino]. lia.
    + intros n j Hn. rewrite F3 in Hn. destruct (beq_spec n (cname c)) as [->|Hn1]; [left; reflexivity|].
      rewrite L2o in Hn by assumption. right. exact (Hon n j Hn).
    + exact Hko.
    + exact Hrg.
    + rewrite N3. lia.
    + unfold wr_ok, wr'. cbn. destruct (c_cap c); [lia | reflexivity].
    + reflexivity.
  - unfold born. rewrite F3. cbn [wr' wino]. rewrite Inew. reflexivity.
  - unfold cur_view. rewrite F3. cbn [wr' wino wpend]. unfold content. rewrite Inew. reflexivity.
Qed.

(* ------------------------------------------------------------------ what a killed process can leave *)
Inductive kdir :=
| KEmpty                                                                   (* the empty directory *)
| KCur (keys : list key) (closed : list bytes) (cur : bytes) (ts : Z)      (* closed files and rCURRENT, born in the second ts *)
| KNoCur (keys : list key) (closed : list bytes).                          (* closed files only *)

Definition kd_of (d : tview) : kdir := match d with None => KEmpty | Some (k, cl, cu, ts) => KCur k cl cu ts end.
Definition keysK (d : kdir) : list key := match d with KEmpty => [] | KCur k _ _ _ => k | KNoCur k _ => k end.
Definition closedK (d : kdir) : list bytes := match d with KEmpty => [] | KCur _ cl _ _ => cl | KNoCur _ cl => cl end.
Definition ocurK (d : kdir) : option bytes := match d with KCur _ _ cu _ => Some cu | _ => None end.
Definition flatK (d : kdir) : bytes := concat (closedK d) ++ match ocurK d with Some cu => cu | None => [] end.

Definition dir_k (c : config) (e lo : Z) (w : world) (d : kdir) : Prop :=
  match d with
  | KEmpty => dir_ts c e lo w None
  | KCur k cl cu ts => dir_ts c e lo w (Some (k, cl, cu, ts))
  | KNoCur k cl => NoCurInv c e lo w k cl
  end.

Lemma dir_k_of c e lo w d : dir_k c e lo w (kd_of d) <-> dir_ts c e lo w d.
Proof. destruct d as [[[[k cl] cu] ts]|]; reflexivity. Qed.
Lemma flatK_of d : flatK (kd_of d) = flatT d.
Proof. destruct d as [[[[k cl] cu] ts]|]; reflexivity. Qed.
Lemma closedK_of d : closedK (kd_of d) = closedT d.
Proof. destruct d as [[[[k cl] cu] ts]|]; reflexivity. Qed.

Lemma tsinv_later c e lo q q' wr keys closed ts : TsInv c e lo q wr keys closed ts ->
  wfs q' = wfs q -> quiet q' -> (wnow q <= wnow q')%Z -> eoff c q' = e -> TsInv c e lo q' wr keys closed ts.
Proof.
  intros [Q W Hnd Hoff Hc Hcp Hlen Hcl Hon Hko Hrg Htsr Hwr Hcap] F Q' N' E'. constructor; try rewrite F; try assumption. lia.
Qed.

Lemma dir_k_later c e lo q q' d : dir_k c e lo q d ->
  wfs q' = wfs q -> quiet q' -> (wnow q <= wnow q')%Z -> eoff c q' = e -> dir_k c e lo q' d.
Proof.
  intros D F Q' N' E'. destruct d as [|keys closed cur ts|keys closed]; cbn [dir_k dir_ts] in *.
  - destruct D as [A [B C]]. rewrite F. repeat split; try assumption. lia.
  - destruct D as [wr [[I B] [Hp V]]]. exists wr. split; [split; [exact (tsinv_later c e lo q q' wr keys closed ts I F Q' N' E')|]|].
    + unfold born in *. rewrite F. exact B.
    + split; [exact Hp|]. unfold cur_view in *. rewrite F. exact V.
  - exact (nocur_later c e lo q q' keys closed D F Q' N' E').
Qed.

(* the dead process: its world w (clock t) holds the directory d; n bounds the number of closed files *)
Definition DeadT (c : config) (e lo : Z) (n : nat) (t : Z) (w : world) (d : kdir) : Prop :=
  dead w /\ wnow w = t /\ eoff c w = e /\ dir_k c e lo (calm w) d /\ length (closedK d) <= n.

Lemma deadt_of_quiet c e lo qd d n : quiet qd -> eoff c qd = e -> dir_k c e lo qd d -> length (closedK d) <= n ->
  DeadT c e lo n (wnow qd) (kw qd 0) d.
Proof.
  intros Q Ho D Hn. split; [apply dead_kw; exact Q|]. split; [reflexivity|]. split; [exact Ho|].
  split; [|exact Hn]. apply (dir_k_later c e lo qd); [exact D | reflexivity | apply quiet_calm; apply Q | apply Z.le_refl | exact Ho].
Qed.

Lemma deadt_after c e lo n t w w' d dt : DeadT c e lo n t w d -> after_dead w w' dt -> (0 <= dt)%Z ->
  DeadT c e lo n (t + dt) w' d.
Proof.
  intros [Dw [Hn [He [D L]]]] [Dw' [F [N O]]] Hdt.
  split; [exact Dw'|]. split; [lia|].
  assert (He' : eoff c w' = e) by (unfold eoff in *; rewrite O; exact He).
  split; [exact He'|]. split; [|exact L].
  apply (dir_k_later c e lo (calm w)); [exact D | cbn [calm set_acts set_kill wfs]; exact F | apply quiet_calm; apply Dw'
    | cbn [calm set_acts set_kill wnow]; lia | exact He'].
Qed.

Lemma deadt_mono c e lo n m t w d : n <= m -> DeadT c e lo n t w d -> DeadT c e lo m t w d.
Proof. intros H [A [B [C [D E]]]]. repeat split; try assumption; try apply A. lia. Qed.

(* the world of x is a quiet world q (clock t) with the counter at S m (alive, m effects left); the state is the one of a run on
   the empty directory (TsRestart.GRelT with d0 = None) *)
Definition KRelT (c : config) (e lo : Z) (n : nat) (t : Z) (x : sys) (a : tview) : Prop :=
  exists q m, s_w x = kw q (S m) /\ wnow q = t /\ GRelT c e lo n (with_w x q) None a.

Section DirectT.
Variables (c : config) (crit : criterion) (e lo hi : Z).
Hypothesis Hcfg : tscfg c crit.
Hypothesis Hcap : c_cap c = None.
Hypothesis Htag : tag_ok c.
Hypothesis Hyears : years_ok e lo hi.

Lemma direct_wr_t q wr keys closed ts : TsInvB c e lo q wr keys closed ts -> wpend wr = [] /\ wcap wr = None.
Proof.
  intros [I _]. pose proof (ti_wr _ _ _ _ _ _ _ _ I) as Hw. pose proof (ti_cap _ _ _ _ _ _ _ _ I) as Hc. rewrite Hcap in Hc.
  unfold wr_ok in Hw. rewrite Hc in Hw. split; assumption.
Qed.

Lemma tsinvb_dirk q wr keys closed ts : TsInvB c e lo q wr keys closed ts -> dir_k c e lo q (KCur keys closed (cur_view q wr) ts).
Proof. intros I. exists wr. split; [exact I|]. split; [apply (direct_wr_t q wr keys closed ts I) | reflexivity]. Qed.

(* ---- one rotation with a budget: rename, create ---- *)
Lemma mount_next_kt q wr keys closed ts roll force n :
  TsInvB c e lo q wr keys closed ts -> (wnow q <= hi)%Z -> (N.of_nat (length closed) <= usize_max)%N ->
  force || rotation_necessary q roll = true ->
  let knew := (ts, count ts keys) in
  exists f1, rename (wfs q) (cname c) (kname c e knew) = Some f1 /\
  match n with
  | 0 => exists r st',
      mount_next c (kw q 1) (Active (Some (mk_rs (NSTs ts (Some cur_infix) std_fmt) roll)) wr (cname c)) force = (r, kw q 0, st')
  | 1 => exists r st',
      mount_next c (kw q 2) (Active (Some (mk_rs (NSTs ts (Some cur_infix) std_fmt) roll)) wr (cname c)) force
      = (r, kw (set_fs q f1) 0, st')
  | S (S n') => exists q' wr' roll',
      mount_next c (kw q (S (S (S n')))) (Active (Some (mk_rs (NSTs ts (Some cur_infix) std_fmt) roll)) wr (cname c)) force
      = (Ok tt, kw q' (S n'), Active (Some (mk_rs (NSTs (wnow q) (Some cur_infix) std_fmt) roll')) wr' (cname c))
      /\ TsInvB c e lo q' wr' (keys ++ [knew]) (closed ++ [cur_view q wr]) (wnow q) /\ cur_view q' wr' = [] /\ same_env q q'
  end.
Proof.
  intros IB Hhi Hmax Hnec knew. pose proof Hcfg as [Hrot [Hts [Hlink _]]]. pose proof IB as [I B].
  pose proof I as [Q W Hnd Hoff Hc Hcp Hlen Hcl Hon Hko Hrg Htsr Hwr Hca].
  destruct (direct_wr_t q wr keys closed ts IB) as [Hp Hc0].
  destruct (rotate_tsinv c e lo hi q wr keys closed ts I Hyears Hhi) as [f1 [Er [L1c RI]]]. fold knew in Er, RI.
  exists f1. split; [exact Er|].
  assert (CF : forall K, collision_free c (kw q K) (infix_from_ts c (kw q K) std_fmt ts) = (Ok (infix_of e knew), kw q K)).
  { intros K. unfold collision_free. rewrite tick_kw by exact Q. cbv beta iota. rewrite tick_kw by exact Q. cbv beta iota.
    rewrite (fixed_of_fixed0 c (kw q K) Hts), infix_from_ts_tsx.
    change (eoff c (kw q K)) with (eoff c q). rewrite Hoff. change (woff (kw q K)) with (woff q). change (wfs (kw q K)) with (wfs q).
    rewrite (cfi_tsinv c e lo hi q wr keys closed ts Htag Hyears I Hhi Hmax). reflexivity. }
  (* the naming step: the collision-free infix, then the rename *)
  assert (NS : forall K, naming_step c (kw q K) (NSTs ts (Some cur_infix) std_fmt)
                 = (Ok cur_infix, eff_fs q K f1, NSTs (birth_or_now (eff_fs q K f1) (cname c)) (Some cur_infix) std_fmt)).
  { intros K. unfold naming_step, creation_ts_of_current. cbv beta iota zeta. rewrite CF. cbv beta iota zeta.
    rewrite !(name_of_fixed c (kw q K)) by assumption. fold (nm c cur_infix). fold (cname c).
    change (as_name (c_spec c) (fixed0 c) (Some (infix_of e knew))) with (kname c e knew).
    rewrite p_rename_kw by exact Q. rewrite eff_eq, Er. reflexivity. }
  pose proof (fun K => mount_next_rename_kw c q (mk_rs (NSTs ts (Some cur_infix) std_fmt) roll) wr (cname c) force K cur_infix _ f1
                         Hts Hlink Q Hp Hnec (NS K) L1c) as MN.
  destruct n as [|[|n']].
  - (* killed at the rename *)
    rewrite (MN 1). apply mount_tail_dead_never; [exact (dead_kw q Q) | reflexivity].
  - (* killed at the creation of the new current file *)
    rewrite (MN 2). cbn [eff_fs mk_rs rs_roll rs_cleanup rs_bg cleanup_or_queue cleanup_impl]. eauto.
  - (* the rotation is completed *)
    rewrite (MN (S (S (S n')))). cbn [eff_fs mk_rs rs_roll rs_cleanup rs_bg cleanup_or_queue cleanup_impl].
    assert (Eb : birth_or_now (kw (set_fs q f1) (S (S n'))) (cname c) = wnow q).
    { unfold birth_or_now, file_of. cbn [kw set_kill set_fs wfs wnow]. rewrite L1c. reflexivity. }
    rewrite Eb.
    set (q2 := set_fs (set_fs q f1) (fst (create_file f1 (cname c) 0%N (wnow q)))).
    assert (Q2 : quiet q2) by (apply quiet_set_fs, quiet_set_fs; exact Q).
    assert (F3 : wfs q2 = append_ino (fst (create_file f1 (cname c) 0%N (wnow q))) (wino wr) (wpend wr)).
    { rewrite Hp, append_ino_nil_id. reflexivity. }
    destruct (RI q2 Q2 Hoff eq_refl F3) as [I2 V2].
    eexists q2, _, (reset_size_and_date q2 roll (cname c)).
    split. { rewrite reset_kw. reflexivity. }
    split; [exact I2|]. split; [exact V2|].
    eapply same_env_trans; [apply same_env_set_fs; exact Q | apply same_env_set_fs; apply quiet_set_fs; exact Q].
Qed.

(* ---- one write(2) of the unbuffered writer with a budget ---- *)
Lemma w_write_kt q wr keys closed ts b n :
  TsInvB c e lo q wr keys closed ts ->
  exists w', w_write (kw q (S n)) wr b = (true, w', wr) /\
   ( (exists q' n', w' = kw q' (S n') /\ TsInvB c e lo q' wr keys closed ts /\ cur_view q' wr = cur_view q wr ++ b /\ same_env q q')
     \/ w' = kw q 0 ).
Proof.
  intros IB. destruct (direct_wr_t q wr keys closed ts IB) as [Hp Hc0]. pose proof (ti_quiet _ _ _ _ _ _ _ _ (proj1 IB)) as Q.
  apply (w_write_direct_kw (fun q' => TsInvB c e lo q' wr keys closed ts) q wr b n Q Hp Hc0 IB).
  intros x q' F S. exact (tsinvb_append c e lo q q' wr wr keys closed ts x IB F S eq_refl eq_refl (ti_wr _ _ _ _ _ _ _ _ (proj1 IB))).
Qed.

(* what the process leaves when it dies in a write on an active writer whose view is (cl, cu): the directory of the quiet world qd *)
Definition died_k (q : world) (w' : world) (cl : list bytes) (cu : bytes) : Prop :=
  exists qd d, w' = kw qd 0 /\ same_env q qd /\ eoff c qd = e /\ dir_k c e lo qd d /\ flatK d = concat cl ++ cu
    /\ length (closedK d) <= S (length cl).

(* ---- a write on an active writer with a budget: every kill point ---- *)
Lemma write_active_kt q wr keys closed ts roll b n :
  TsInvB c e lo q wr keys closed ts -> (wnow q <= hi)%Z -> (N.of_nat (length closed) <= usize_max)%N ->
  exists r w' s' rot', write_buffer (st_ts c ts roll wr) (kw q (S n)) b = (r, w', s', rot') /\
  ( (exists q' n' wr' roll' keys' closed' ts', w' = kw q' (S n') /\ r = Ok tt /\ s' = st_ts c ts' roll' wr'
       /\ rot' = rotation_necessary q roll
       /\ TsInvB c e lo q' wr' keys' closed' ts' /\ same_env q q'
       /\ (keys', closed', cur_view q' wr', ts')
          = (if rotation_necessary q roll then (keys ++ [(ts, count ts keys)], closed ++ [cur_view q wr], b, wnow q)
             else (keys, closed, cur_view q wr ++ b, ts)))
    \/ died_k q w' closed (cur_view q wr) ).
Proof.
  intros IB Hhi Hmax. destruct (direct_wr_t q wr keys closed ts IB) as [Hp Hc0]. pose proof (ti_quiet _ _ _ _ _ _ _ _ (proj1 IB)) as Q.
  pose proof (ti_off _ _ _ _ _ _ _ _ (proj1 IB)) as Hoff.
  rewrite write_buffer_eq. unfold wb_active. cbn [st_ts f_cfg f_inner mk_rs rs_roll]. rewrite rot_nec_kw.
  destruct (rotation_necessary q roll) eqn:Er.
  - (* the write rotates first *)
    destruct (mount_next_kt q wr keys closed ts roll false n IB Hhi Hmax) as [f1 [Ern M]]; [cbn [orb]; exact Er|]. cbv zeta in Ern, M.
    set (knew := (ts, count ts keys)) in *.
    destruct n as [|[|n']].
    + destruct M as [r1 [st1 E1]]. rewrite E1.
      destruct (wb_tail_dead (st_ts c ts roll wr) b r1 (kw q 0) st1 true (dead_kw q Q)) as [r [s' ET]].
      exists r, (kw q 0), s', true. split; [exact ET|]. right.
      exists q, (KCur keys closed (cur_view q wr) ts). split; [reflexivity|]. split; [apply same_env_refl; exact Q|].
      split; [exact Hoff|]. split; [exact (tsinvb_dirk q wr keys closed ts IB)|].
      split; [reflexivity | cbn [closedK]; lia].
    + destruct M as [r1 [st1 E1]]. rewrite E1.
      destruct (wb_tail_dead (st_ts c ts roll wr) b r1 (kw (set_fs q f1) 0) st1 true (dead_kw _ (quiet_set_fs q f1 Q))) as [r [s' ET]].
      exists r, (kw (set_fs q f1) 0), s', true. split; [exact ET|]. right.
      exists (set_fs q f1), (KNoCur (keys ++ [knew]) (closed ++ [cur_view q wr])).
      split; [reflexivity|]. split; [apply same_env_set_fs; exact Q|]. split; [exact Hoff|].
      split. { exact (rename_nocur c e lo hi q wr keys closed ts f1 (proj1 IB) Hp Hyears Hhi Ern (set_fs q f1) (quiet_set_fs q f1 Q) eq_refl Hoff eq_refl). }
      split.
      * unfold flatK. cbn [closedK ocurK]. rewrite concat_app. cbn [concat]. rewrite !app_nil_r. reflexivity.
      * cbn [closedK]. rewrite app_length. cbn [length]. lia.
    + destruct M as [q1 [wr1 [roll1 [E1 [I1 [V1 S1]]]]]]. rewrite E1. unfold wb_tail.
      destruct (w_write_kt q1 wr1 (keys ++ [knew]) (closed ++ [cur_view q wr]) (wnow q) b n' I1) as [w2 [Ew Out]]. rewrite Ew.
      eexists _, w2, _, true. split; [reflexivity|].
      destruct Out as [[q2 [n2 [-> [I2 [V2 S2]]]]] | ->].
      * left. exists q2, n2, wr1, (increase_size roll1 (N.of_nat (length b))), (keys ++ [knew]), (closed ++ [cur_view q wr]), (wnow q).
        split; [reflexivity|]. split; [reflexivity|]. split; [reflexivity|]. split; [reflexivity|].
        split; [exact I2|]. rewrite V1 in V2. cbn [app] in V2.
        split; [eapply same_env_trans; eassumption|]. rewrite V2. reflexivity.
      * right. exists q1, (KCur (keys ++ [knew]) (closed ++ [cur_view q wr]) (cur_view q1 wr1) (wnow q)).
        split; [reflexivity|]. split; [exact S1|]. split; [exact (ti_off _ _ _ _ _ _ _ _ (proj1 I1))|].
        split; [exact (tsinvb_dirk q1 wr1 _ _ _ I1)|].
        split.
        -- unfold flatK. cbn [closedK ocurK]. rewrite V1, concat_app. cbn [concat]. rewrite !app_nil_r. reflexivity.
        -- cbn [closedK]. rewrite app_length. cbn [length]. lia.
  - (* no rotation *)
    rewrite mount_next_idle by (rewrite rot_nec_kw; exact Er). unfold wb_tail.
    destruct (w_write_kt q wr keys closed ts b n IB) as [w2 [Ew Out]]. rewrite Ew.
    eexists _, w2, _, false. split; [reflexivity|].
    destruct Out as [[q2 [n2 [-> [I2 [V2 S2]]]]] | ->].
    + left. exists q2, n2, wr, (increase_size roll (N.of_nat (length b))), keys, closed, ts.
      split; [reflexivity|]. split; [reflexivity|]. split; [reflexivity|]. split; [reflexivity|].
      split; [exact I2|]. split; [exact S2|]. rewrite V2. reflexivity.
    + right. exists q, (KCur keys closed (cur_view q wr) ts). split; [reflexivity|]. split; [apply same_env_refl; exact Q|].
      split; [exact Hoff|]. split; [exact (tsinvb_dirk q wr keys closed ts IB)|].
      split; [reflexivity | cbn [closedK]; lia].
Qed.

(* ---- the first write: initialisation in the empty directory with a budget ---- *)
Lemma nocur_empty q : quiet q -> names (wfs q) = [] -> eoff c q = e -> (lo <= wnow q)%Z -> NoCurInv c e lo q [] [].
Proof.
  intros Q Hn Hoff Hlo. constructor; try assumption.
  - split; intros; rewrite lookup_empty in * by assumption; discriminate.
  - unfold dir_names. rewrite Hn. constructor.
  - apply lookup_empty. exact Hn.
  - reflexivity.
  - intros i Hi. cbn in Hi. lia.
  - intros n j L. rewrite lookup_empty in L by assumption. discriminate.
  - constructor.
  - intros k [].
Qed.

Lemma initialize_empty_kt q n :
  quiet q -> names (wfs q) = [] -> inodes (wfs q) = [] -> eoff c q = e -> (lo <= wnow q)%Z ->
  match n with
  | 0 => exists r a, initialize c (kw q 1) = (r, set_acts (kw q 0) a)
  | S n' => exists q' wr roll,
      initialize c (kw q (S (S n'))) = (Ok (Active (Some (mk_rs (NSTs (wnow q) (Some cur_infix) std_fmt) roll)) wr (cname c)), kw q' (S n'))
      /\ TsInvB c e lo q' wr [] [] (wnow q) /\ cur_view q' wr = [] /\ same_env q q'
  end.
Proof.
  intros Q Hn Hi Hoff Hlo. pose proof Hcfg as [Hrot [Hts [Hlink _]]].
  assert (Eb : forall K, birth_or_now (kw q K) (cname c) = wnow q).
  { intros K. unfold birth_or_now, file_of. cbn [kw set_kill wfs wnow]. rewrite lookup_empty by assumption. reflexivity. }
  (* the naming step finds no current file: nothing is renamed, the time stamp is the present instant *)
  assert (EN : forall K, init_naming c (kw q K) NTimestamps = (Ok (NSTs (wnow q) (Some cur_infix) std_fmt, cur_infix), kw q K)).
  { intros K. unfold init_naming, creation_ts_of_current. rewrite (name_of_fixed c (kw q K)) by assumption. fold (nm c cur_infix) (cname c).
    cbv zeta. rewrite Eb. destruct (negb (c_append c)); [|reflexivity].
    unfold collision_free. rewrite tick_kw by exact Q. cbv beta iota. rewrite tick_kw by exact Q. cbv beta iota.
    change (wfs (kw q K)) with (wfs q). rewrite collision_free_infix_empty by assumption. cbv beta iota.
    rewrite p_rename_kw by exact Q. rewrite rename_none by (apply lookup_empty; assumption). rewrite Eb. reflexivity. }
  assert (Lc : lookup (wfs q) (name_of c q (Some cur_infix)) = None) by (apply lookup_empty; exact Hn).
  pose proof (fun k => open_log_file_fresh_kw c q k (Some cur_infix) Q Hlink Lc) as Eo.
  rewrite (name_of_nm c q cur_infix Hts) in Eo. fold (cname c) in Eo.
  destruct n as [|n'].
  - exact (initialize_dies c _ _ _ _ _ _ _ _ _ Hrot (EN 1) (Eo 1) (dead_kw q Q)).
  - specialize (Eo (S (S n'))). cbn [eff_fs] in Eo.
    set (q2 := set_fs q (fst (create_file (wfs q) (cname c) 0%N (wnow q)))) in *.
    assert (Q2 : quiet q2) by (apply quiet_set_fs; exact Q).
    destruct (create_nocur c e lo q [] [] (nocur_empty q Q Hn Hoff Hlo) q2 Q2 Hoff eq_refl eq_refl) as [I2 V2].
    assert (Lc2 : lookup (wfs q2) (cname c) = Some (snd (create_file (wfs q) (cname c) 0%N (wnow q)))) by exact (ti_cur _ _ _ _ _ _ _ _ (proj1 I2)).
    assert (Fo : file_of (wfs q2) (cname c) = Some (fresh_file (wnow q))).
    { unfold file_of. rewrite Lc2. f_equal. unfold q2, create_file. cbn [set_fs wfs fst snd inode]. rewrite Hi. reflexivity. }
    eexists q2, _, _. split; [|split; [exact I2|]; split; [exact V2 | apply same_env_set_fs; exact Q]].
    exact (initialize_steps c _ _ _ _ _ _ _ _ _ _ _ _ _ Hrot (EN _) Eo (roll_new_kw _ (S n') crit (c_append c) _ _ Q2 Fo) eq_refl).
Qed.

(* ---- a dead outcome as the world of a dead process ---- *)
Lemma died_k_dead q w' cl cu : died_k q w' cl cu ->
  exists d, DeadT c e lo (S (length cl)) (wnow q) w' d /\ flatK d = concat cl ++ cu.
Proof.
  intros [qd [d [-> [S [Ho [D [F L]]]]]]]. exists d. split; [|exact F].
  pose proof (deadt_of_quiet c e lo qd d _ (proj1 S) Ho D L) as X. destruct S as [_ [N _]]. rewrite N in X. exact X.
Qed.

(* ---- a write, from either kind of state ---- *)
Lemma write_rel_kt n x a b q m :
  s_w x = kw q (S m) -> GRelT c e lo n (with_w x q) None a -> (wnow q <= hi)%Z -> (N.of_nat n <= usize_max)%N ->
  exists s r w' s' rot, s_flw x = Some s /\ f_poisoned s = false /\
    write_buffer s (s_w x) b = (r, w', s', rot) /\
    ( (r = Ok tt /\ exists a', KRelT c e lo (S n) (wnow q) {| s_flw := Some s'; s_w := w'; s_tl := []; s_dead := s_dead x |} a'
                               /\ flatT a' = flatT a ++ b)
      \/ (exists d, DeadT c e lo (S n) (wnow q) w' d /\ flatK d = flatT a) ).
Proof.
  intros Ew G Hhi Hmax. rewrite Ew. destruct a as [[[[keys cl] cu] ts]|]; cbn [GRelT] in G.
  - destruct G as [E0 [wr [roll [Es [I [V Hn]]]]]]. cbn [with_w s_flw s_w] in Es, I, V. pose proof E0 as [Ht [Ha [Q Ho]]].
    cbn [with_w s_tl s_w] in Ht, Ha, Q, Ho.
    destruct (write_active_kt q wr keys cl ts roll b m I Hhi ltac:(lia)) as [r [w' [s' [rot' [E Out]]]]].
    exists (st_ts c ts roll wr), r, w', s', rot'. split; [exact Es|]. split; [reflexivity|]. split; [exact E|].
    destruct Out as [[q' [n' [wr' [roll' [keys' [cl' [ts' [-> [-> [-> [-> [I' [S' V']]]]]]]]]]]]] | D].
    + left. split; [reflexivity|]. exists (Some (keys', cl', cur_view q' wr', ts')). split.
      * exists q', n'. split; [reflexivity|]. split; [exact (same_env_now _ _ S')|]. cbn [GRelT].
        split. { split; [reflexivity|]. split; [cbn [with_w s_w]; exact (same_env_acts _ _ S' Ha)|]. split; [apply S'|].
                 cbn [with_w s_w]. rewrite (eoff_same_env c _ _ S'). exact Ho. }
        exists wr', roll'. cbn [with_w s_flw s_w]. split; [reflexivity|]. split; [exact I'|]. split; [reflexivity|].
        destruct (rotation_necessary q roll); injection V' as _ -> _ _; rewrite ?app_length; cbn [length]; lia.
      * rewrite V in V'. destruct (rotation_necessary q roll); injection V' as -> -> -> ->; cbn [flatT].
        -- rewrite concat_app. cbn [concat]. rewrite app_nil_r. reflexivity.
        -- rewrite app_assoc. reflexivity.
    + right. destruct (died_k_dead q w' _ _ D) as [d [Dd Fl]]. exists d.
      split; [apply (deadt_mono c e lo (S (length cl))); [lia | exact Dd]|]. rewrite Fl, V. reflexivity.
  - destruct G as [E0 [Es [D Hn]]]. cbn [with_w s_flw s_w dir_ts] in Es, D. pose proof E0 as [Ht [Ha [Q Ho]]].
    cbn [with_w s_tl s_w] in Ht, Ha, Q, Ho. destruct D as [Hnm [Hi Hlo]].
    pose proof (initialize_empty_kt q m Q Hnm Hi Ho Hlo) as IE. destruct m as [|m'].
    + destruct IE as [r0 [a0 Ei]].
      destruct (wb_initial_dead_e (new_flw c) (kw q 1) b r0 (kw (set_acts q a0) 0) eq_refl Ei (dead_kw (set_acts q a0) Q)) as [r [w' [s' [rot [E F]]]]].
      exists (new_flw c), r, w', s', rot. split; [exact Es|]. split; [reflexivity|]. split; [exact E|].
      right. exists KEmpty. split; [|reflexivity].
      assert (D0 : DeadT c e lo (S n) (wnow q) (kw (set_acts q a0) 0) KEmpty).
      { apply (deadt_of_quiet c e lo (set_acts q a0)); [exact Q | exact Ho | cbn [dir_k dir_ts]; auto | cbn [closedK length]; lia]. }
      replace (wnow q) with (wnow q + 0)%Z by lia.
      apply (deadt_after c e lo (S n) (wnow q) (kw (set_acts q a0) 0) w' KEmpty 0 D0); [apply frozen_e_after; exact F | lia].
    + destruct IE as [q1 [wr [roll [Ei [I [V S1]]]]]].
      assert (Hhi1 : (wnow q1 <= hi)%Z) by (rewrite (same_env_now _ _ S1); exact Hhi).
      destruct (write_active_kt q1 wr [] [] (wnow q) roll b m' I Hhi1 ltac:(cbn [length]; lia)) as [r [w' [s' [rot' [E Out]]]]].
      exists (new_flw c), r, w', s', rot'. split; [exact Es|]. split; [reflexivity|].
      split. { rewrite (write_buffer_init c (kw q (S (S m'))) b _ _ _ (kw q1 (S m')) Ei). exact E. }
      destruct Out as [[q' [n2 [wr' [roll' [keys' [cl' [ts' [-> [-> [-> [-> [I' [S' V']]]]]]]]]]]]] | D].
      * left. split; [reflexivity|]. exists (Some (keys', cl', cur_view q' wr', ts')).
        pose proof (same_env_trans _ _ _ S1 S') as S2. split.
        -- exists q', n2. split; [reflexivity|]. split; [exact (same_env_now _ _ S2)|]. cbn [GRelT].
           split. { split; [reflexivity|]. split; [cbn [with_w s_w]; exact (same_env_acts _ _ S2 Ha)|]. split; [apply S2|].
                    cbn [with_w s_w]. rewrite (eoff_same_env c _ _ S2). exact Ho. }
           exists wr', roll'. cbn [with_w s_flw s_w]. split; [reflexivity|]. split; [exact I'|]. split; [reflexivity|].
           destruct (rotation_necessary q1 roll); injection V' as _ -> _ _; cbn [app length]; lia.
        -- rewrite V in V'. cbn [app] in V'. destruct (rotation_necessary q1 roll); injection V' as -> -> -> ->; reflexivity.
      * right. destruct (died_k_dead q1 w' _ _ D) as [d [Dd Fl]]. exists d.
        rewrite (same_env_now _ _ S1) in Dd.
        split; [apply (deadt_mono c e lo 1); [lia | exact Dd]|]. rewrite Fl, V. reflexivity.
Qed.

Lemma krel_flw_t n t x a : KRelT c e lo n t x a -> exists s, s_flw x = Some s /\ f_cfg s = c.
Proof.
  intros [q [m [_ [_ G]]]]. destruct a as [[[[keys cl] cu] ts]|]; cbn [GRelT] in G.
  - destruct G as [_ [wr [roll [Es _]]]]. cbn [with_w s_flw] in Es. rewrite Es. eexists. split; reflexivity.
  - destruct G as [_ [Es _]]. cbn [with_w s_flw] in Es. rewrite Es. eexists. split; reflexivity.
Qed.

Lemma step_sync_kt n t x a o : KRelT c e lo n t x a -> step x o = sync_step x o.
Proof. intros K. destruct (krel_flw_t n t x a K) as [s [Es Ec]]. exact (TsRestart.step_sync_cfg c crit x s o Hcfg Es Ec). Qed.

Lemma krel_tl n t x a : KRelT c e lo n t x a -> s_tl x = [].
Proof.
  intros [q [m [_ [_ G]]]]. destruct a as [[[[keys cl] cu] ts]|]; cbn [GRelT] in G; destruct G as [[Ht _] _]; exact Ht.
Qed.

(* ---- one basic operation of a process with a budget: it either completes (and is acknowledged), or the process
        dies in it, and then the directory holds exactly what was acknowledged before ---- *)
Lemma kstep_kt n t x a o : KRelT c e lo n t x a -> basic_op o -> tick_ok o -> (t <= hi)%Z -> (N.of_nat n <= usize_max)%N ->
  let '(x', ob) := step x o in
  (alive (s_w x') = true /\ exists a', KRelT c e lo (S n) (t + dt_of o) x' a' /\ flatT a' = flatT a ++ written [o])
  \/ (alive (s_w x') = false /\ exists d, DeadT c e lo (S n) (t + dt_of o) (s_w x') d /\ flatK d = flatT a).
Proof.
  intros K Hb Htk Hhi Hmax. rewrite (step_sync_kt n t x a o K). pose proof (krel_tl n t x a K) as Ht.
  destruct K as [q [m [Ew [Hn G]]]]. rewrite <- Hn in Hhi.
  destruct o; try contradiction; cbn [sync_step dt_of written]; rewrite ?Z.add_0_r, ?app_nil_r.
  - (* OWrite *)
    destruct (write_rel_kt n x a b q m Ew G Hhi Hmax) as [s [r [w' [s' [rot [Es [Hp [E Out]]]]]]]]. rewrite Hn in Out.
    rewrite Es, Hp, Ht. cbn [app]. rewrite E.
    destruct Out as [[-> [a' [K' F']]] | [d [D Fl]]].
    + left. split; [|exists a'; split; [exact K' | exact F']].
      destruct K' as [q' [n' [E' _]]]. cbn [s_w] in E' |- *. rewrite E'. reflexivity.
    + right. cbn [s_w].
      rewrite report_write_dead by apply D. split; [apply dead_not_alive; apply D|]. exists d. split; [exact D | exact Fl].
  - (* OPlain *)
    destruct (write_rel_kt n x a b q m Ew G Hhi Hmax) as [s [r [w' [s' [rot [Es [Hp [E Out]]]]]]]]. rewrite Hn in Out.
    rewrite Es, Hp, E. rewrite Ht.
    destruct Out as [[-> [a' [K' F']]] | [d [D Fl]]].
    + left. split; [|exists a'; split; [exact K' | exact F']].
      destruct K' as [q' [n' [E' _]]]. cbn [s_w] in E' |- *. rewrite E'. reflexivity.
    + right. cbn [s_w]. split; [apply dead_not_alive; apply D|]. exists d. split; [exact D | exact Fl].
  - (* OFlush *)
    destruct a as [[[[keys cl] cu] ts]|]; cbn [GRelT] in G.
    + destruct G as [E0 [wr [roll [Es [I [V Hl]]]]]]. cbn [with_w s_flw s_w] in Es, I, V. rewrite Es. cbn [st_ts f_poisoned].
      destruct (direct_wr_t q wr keys cl ts I) as [Pw _].
      unfold flush_state, st_ts. cbn [f_inner]. rewrite w_flush_nop by exact Pw. rewrite (writer_eta wr Pw).
      cbn [s_w]. left. split; [rewrite Ew; reflexivity|]. exists (Some (keys, cl, cu, ts)). split; [|reflexivity].
      exists q, m. split; [exact Ew|]. split; [exact Hn|]. cbn [GRelT]. split; [exact E0|].
      exists wr, roll. cbn [with_w s_flw s_w]. split; [reflexivity|]. split; [exact I|]. split; [exact V | lia].
    + destruct G as [E0 [Es [D Hl]]]. cbn [with_w s_flw] in Es. rewrite Es. cbn [new_flw f_poisoned flush_state f_inner s_w].
      left. split; [rewrite Ew; reflexivity|]. exists None. split; [|reflexivity].
      exists q, m. split; [exact Ew|]. split; [exact Hn|]. cbn [GRelT]. split; [exact E0|]. split; [reflexivity|]. split; [exact D | lia].
  - (* OTrigger *)
    destruct a as [[[[keys cl] cu] ts]|]; cbn [GRelT] in G.
    + destruct G as [E0 [wr [roll [Es [I [V Hl]]]]]]. cbn [with_w s_flw s_w] in Es, I, V. pose proof E0 as [_ [Ha [Q Ho]]].
      cbn [with_w s_w] in Ha, Q, Ho.
      rewrite Es. cbn [st_ts f_poisoned f_cfg f_inner]. rewrite Ew.
      destruct (direct_wr_t q wr keys cl ts I) as [Pw _].
      destruct (mount_next_kt q wr keys cl ts roll true m I Hhi ltac:(lia) eq_refl) as [f1 [Ern M]]. cbv zeta in Ern, M.
      destruct m as [|[|m']].
      * destruct M as [r1 [st1 E1]]. rewrite E1. right. cbn [s_w]. split; [reflexivity|].
        exists (KCur keys cl (cur_view q wr) ts). split; [|unfold flatK; cbn [closedK ocurK flatT]; rewrite V; reflexivity].
        rewrite <- Hn. apply deadt_of_quiet; [exact Q | exact Ho | exact (tsinvb_dirk q wr keys cl ts I) | cbn [closedK]; lia].
      * destruct M as [r1 [st1 E1]]. rewrite E1. right. cbn [s_w]. split; [reflexivity|].
        exists (KNoCur (keys ++ [(ts, count ts keys)]) (cl ++ [cur_view q wr])). split.
        -- rewrite <- Hn. change (wnow q) with (wnow (set_fs q f1)).
           apply deadt_of_quiet; [apply quiet_set_fs; exact Q | exact Ho | | cbn [closedK]; rewrite app_length; cbn [length]; lia].
           exact (rename_nocur c e lo hi q wr keys cl ts f1 (proj1 I) Pw Hyears Hhi Ern (set_fs q f1) (quiet_set_fs q f1 Q) eq_refl Ho eq_refl).
        -- unfold flatK. cbn [closedK ocurK flatT]. rewrite V, concat_app. cbn [concat]. rewrite !app_nil_r. reflexivity.
      * destruct M as [q' [wr' [roll' [E1 [I' [V' S']]]]]]. rewrite E1. left.
        cbn [code_of with_inner f_cfg f_poisoned s_w]. split; [reflexivity|].
        exists (Some (keys ++ [(ts, count ts keys)], cl ++ [cu], [], wnow q)). split.
        -- exists q', m'. split; [reflexivity|]. split; [rewrite <- Hn; exact (same_env_now _ _ S')|]. cbn [GRelT].
           split. { split; [exact Ht|]. split; [cbn [with_w s_w]; exact (same_env_acts _ _ S' Ha)|]. split; [apply S'|].
                    cbn [with_w s_w]. rewrite (eoff_same_env c _ _ S'). exact Ho. }
           rewrite V in I'. exists wr', roll'. cbn [with_w s_flw s_w]. split; [reflexivity|]. split; [exact I'|]. split; [exact V'|].
           rewrite app_length. cbn [length]. lia.
        -- cbn [flatT]. rewrite concat_app. cbn [concat]. rewrite !app_nil_r. reflexivity.
    + destruct G as [E0 [Es [D Hl]]]. cbn [with_w s_flw] in Es. rewrite Es.
      cbn [new_flw f_poisoned f_cfg f_inner mount_next with_inner code_of s_w].
      left. split; [rewrite Ew; reflexivity|]. exists None. split; [|reflexivity].
      exists q, m. split; [exact Ew|]. split; [exact Hn|]. cbn [GRelT]. split; [exact E0|]. split; [reflexivity|]. split; [exact D | lia].
  - (* OTick *)
    cbn [s_w tick_ok] in *. left. rewrite Ew. split; [reflexivity|]. exists a. split; [|reflexivity].
    exists (set_now q (wnow q + dt)%Z), m. split; [reflexivity|]. split; [cbn [set_now wnow]; lia|].
    destruct a as [[[[keys cl] cu] ts]|]; cbn [GRelT] in *.
    + destruct G as [E0 [wr [roll [Es [I [V Hl]]]]]]. pose proof E0 as [_ [Ha [Q Ho]]].
      split. { split; [exact Ht|]. split; [exact Ha|]. split; [apply quiet_set_now; exact Q | exact Ho]. }
      exists wr, roll. cbn [with_w s_flw s_w] in *. split; [exact Es|]. split; [apply tsinvb_tick; assumption|]. split; [exact V | lia].
    + destruct G as [E0 [Es [D Hl]]]. pose proof E0 as [_ [Ha [Q Ho]]].
      split. { split; [exact Ht|]. split; [exact Ha|]. split; [apply quiet_set_now; exact Q | exact Ho]. }
      split; [exact Es|]. split; [apply dir_ts_tick; assumption | lia].
  - (* OSnap *)
    left. split; [rewrite Ew; reflexivity|]. exists a. split; [|reflexivity]. exists q, m. split; [exact Ew|]. split; [exact Hn|].
    destruct a as [[[[keys cl] cu] ts]|]; cbn [GRelT] in *.
    + destruct G as [E0 [wr [roll [Es [I [V Hl]]]]]]. split; [exact E0|]. exists wr, roll. split; [exact Es|]. split; [exact I|]. split; [exact V | lia].
    + destruct G as [E0 [Es [D Hl]]]. split; [exact E0|]. split; [exact Es|]. split; [exact D | lia].
Qed.

(* ---- the operations after the counter has been armed ---- *)
Lemma krun_kt : forall ops n t x a, KRelT c e lo n t x a -> Forall basic_op ops -> Forall tick_ok ops ->
  (t + elapsed ops <= hi)%Z -> (N.of_nat (n + length ops) <= usize_max)%N ->
  (exists a', KRelT c e lo (n + length ops) (t + elapsed ops) (fst (run x ops)) a' /\ flatT a' = flatT a ++ acked x ops)
  \/ (exists d, DeadT c e lo (n + length ops) (t + elapsed ops) (s_w (fst (run x ops))) d /\ flatK d = flatT a ++ acked x ops).
Proof.
  induction ops as [|o r IH]; intros n t x a K Hb Htk Hhi Hmax.
  - left. exists a. cbn [run fst acked length elapsed]. rewrite app_nil_r, Nat.add_0_r, Z.add_0_r. split; [exact K | reflexivity].
  - inversion Hb as [|o' r' Ho Hr]; subst. inversion Htk as [|o' r' Hto Htr]; subst. rewrite fst_run_cons. cbn [acked length elapsed] in *.
    pose proof (elapsed_nonneg r Htr) as Er.
    assert (Hdt : (0 <= dt_of o)%Z) by (destruct o; cbn [dt_of tick_ok] in *; lia).
    pose proof (kstep_kt n t x a o K Ho Hto ltac:(lia) ltac:(lia)) as St. destruct (step x o) as [x1 ob] eqn:Est. cbn [fst].
    replace (n + S (length r)) with (S n + length r) by lia.
    replace (t + (dt_of o + elapsed r))%Z with (t + dt_of o + elapsed r)%Z by lia.
    destruct St as [[Al [a1 [K1 F1]]] | [Al [d [D Fl]]]]; rewrite Al.
    + destruct (IH (S n) (t + dt_of o)%Z x1 a1 K1 Hr Htr ltac:(lia) ltac:(lia)) as [[a' [K' F']] | [d [D F']]].
      * left. exists a'. split; [exact K'|]. rewrite F', F1, app_assoc. reflexivity.
      * right. exists d. split; [exact D|]. rewrite F', F1, app_assoc. reflexivity.
    + cbn [app]. rewrite (acked_dead r x1 (proj1 D) Hr), app_nil_r.
      right. exists d. split; [|exact Fl].
      apply (deadt_mono c e lo (S n)); [lia|].
      exact (deadt_after c e lo (S n) _ _ _ d (elapsed r) D (dead_run_e r x1 (proj1 D) Hr) Er).
Qed.

(* the acknowledged bytes are the bytes written by a prefix of the operations: the process dies once *)
Lemma acked_prefix_kt : forall ops n t x a, KRelT c e lo n t x a -> Forall basic_op ops -> Forall tick_ok ops ->
  (t + elapsed ops <= hi)%Z -> (N.of_nat (n + length ops) <= usize_max)%N ->
  exists j, acked x ops = written (firstn j ops).
Proof.
  induction ops as [|o r IH]; intros n t x a K Hb Htk Hhi Hmax; [exists 0; reflexivity|].
  inversion Hb as [|o' r' Ho Hr]; subst. inversion Htk as [|o' r' Hto Htr]; subst. cbn [acked length elapsed] in *.
  pose proof (elapsed_nonneg r Htr) as Er.
  assert (Hdt : (0 <= dt_of o)%Z) by (destruct o; cbn [dt_of tick_ok] in *; lia).
  pose proof (kstep_kt n t x a o K Ho Hto ltac:(lia) ltac:(lia)) as St. destruct (step x o) as [x1 ob] eqn:Est. cbn [fst].
  destruct St as [[Al [a1 [K1 _]]] | [Al [d [D _]]]]; rewrite Al.
  - destruct (IH (S n) (t + dt_of o)%Z x1 a1 K1 Hr Htr ltac:(lia) ltac:(lia)) as [j E]. exists (S j). cbn [firstn].
    rewrite E, (written_cons o (firstn j r)). reflexivity.
  - exists 0. rewrite (acked_dead r x1 (proj1 D) Hr). reflexivity.
Qed.

Lemma arm_krel_t n x a k : GRelT c e lo n x None a -> KRelT c e lo n (wnow (s_w x)) (fst (step x (OSetKill k))) a.
Proof.
  intros G.
  assert (E : exists s, s_flw x = Some s /\ f_cfg s = c).
  { destruct a as [[[[keys cl] cu] ts]|]; cbn [GRelT] in G.
    - destruct G as [_ [wr [roll [Es _]]]]. rewrite Es. eexists. split; reflexivity.
    - destruct G as [_ [Es _]]. rewrite Es. eexists. split; reflexivity. }
  destruct E as [s [Es Ec]]. rewrite (TsRestart.step_sync_cfg c crit x s _ Hcfg Es Ec). cbn [sync_step fst].
  exists (s_w x), k. split; [reflexivity|]. split; [reflexivity|].
  unfold with_w. cbn [s_flw s_tl s_dead]. destruct x; exact G.
Qed.

End DirectT.

(* ------------------------------------------------------------------ the directory when no writer is there *)
Definition IdleK (c : config) (e lo : Z) (n : nat) (x : sys) (d : kdir) : Prop :=
  envT c e x /\ s_flw x = None /\ dir_k c e lo (s_w x) d /\ length (closedK d) <= n.

Lemma idleK_of c e lo n x d : IdleK c e lo n x (kd_of d) <-> IdleT c e lo n x d.
Proof. unfold IdleK, IdleT. rewrite dir_k_of, closedK_of. reflexivity. Qed.

Lemma crash_alive_kt c e lo n t x a : c_cap c = None -> KRelT c e lo n t x a ->
  IdleK c e lo n (fst (step x OCrash)) (kd_of a) /\ wnow (s_w (fst (step x OCrash))) = t.
Proof.
  intros Hcap [q [m [Ew [Hn G]]]]. rewrite step_crash. cbn [sync_step fst]. unfold IdleK, envT. cbn [s_tl s_w s_flw]. rewrite Ew.
  change (set_acts (set_kill (kw q (S m)) None) 0) with (calm (kw q (S m))).
  split; [|exact Hn].
  destruct a as [[[[keys cl] cu] ts]|]; cbn [GRelT kd_of closedK dir_k] in *.
  - destruct G as [[_ [_ [Q Ho]]] [wr [roll [Es [I [V Hl]]]]]]. cbn [with_w s_flw s_w] in *.
    split. { split; [reflexivity|]. split; [reflexivity|]. split; [apply quiet_calm; apply Q | exact Ho]. }
    split; [reflexivity|]. split; [|exact Hl]. rewrite <- V.
    apply (dir_k_later c e lo q (calm (kw q (S m))) (KCur keys cl (cur_view q wr) ts)); [|reflexivity | apply quiet_calm; apply Q | apply Z.le_refl | exact Ho].
    exists wr. split; [exact I|]. split; [|reflexivity].
    pose proof (ti_wr _ _ _ _ _ _ _ _ (proj1 I)) as Hw. pose proof (ti_cap _ _ _ _ _ _ _ _ (proj1 I)) as Hc. rewrite Hcap in Hc.
    unfold wr_ok in Hw. rewrite Hc in Hw. exact Hw.
  - destruct G as [[_ [_ [Q Ho]]] [Es [D Hl]]]. cbn [with_w s_flw s_w] in *.
    split. { split; [reflexivity|]. split; [reflexivity|]. split; [apply quiet_calm; apply Q | exact Ho]. }
    split; [reflexivity|]. split; [|cbn [length]; lia].
    apply (dir_k_later c e lo q (calm (kw q (S m))) KEmpty); [exact D | reflexivity | apply quiet_calm; apply Q | apply Z.le_refl | exact Ho].
Qed.

Lemma crash_dead_kt c e lo n t x d : DeadT c e lo n t (s_w x) d ->
  IdleK c e lo n (fst (step x OCrash)) d /\ wnow (s_w (fst (step x OCrash))) = t.
Proof.
  intros [Dw [Hn [He [D L]]]]. rewrite step_crash. cbn [sync_step fst]. unfold IdleK, envT. cbn [s_tl s_w s_flw].
  change (set_acts (set_kill (s_w x) None) 0) with (calm (s_w x)).
  split; [|exact Hn].
  split. { split; [reflexivity|]. split; [reflexivity|]. split; [apply quiet_calm; apply Dw | exact He]. }
  split; [reflexivity|]. split; [exact D | exact L].
Qed.

(* ------------------------------------------------------------------ the whole history of the killed process *)
Lemma kill_history_t c crit t0 off ops1 k ops2 :
  tscfg c crit -> c_cap c = None -> tag_ok c ->
  Forall basic_op ops1 -> Forall basic_op ops2 -> Forall tick_ok ops1 -> Forall tick_ok ops2 ->
  (0 <= t0 + ts_e c off)%Z -> (t0 + elapsed ops1 + elapsed ops2 + ts_e c off < sec_max)%Z ->
  (N.of_nat (1 + length ops1 + length ops2) <= usize_max)%N ->
  let x1 := fst (run (sys0 t0 off) (OStart c :: ops1 ++ [OSetKill k])) in
  let xe := fst (run (sys0 t0 off) (OStart c :: ops1 ++ [OSetKill k] ++ ops2 ++ [OCrash])) in
  (exists d, IdleK c (ts_e c off) t0 (1 + length ops1 + length ops2) xe d
     /\ flatK d = written ops1 ++ acked x1 ops2
     /\ wnow (s_w xe) = (t0 + elapsed ops1 + elapsed ops2)%Z)
  /\ exists j, acked x1 ops2 = written (firstn j ops2).
Proof.
  intros Hcfg Hcap T Hb1 Hb2 Htk1 Htk2 Hlo Hhi Hmax x1 xe. unfold x1, xe. clear x1 xe.
  set (e := ts_e c off) in *. set (hi := (t0 + elapsed ops1 + elapsed ops2)%Z).
  assert (Y : years_ok e t0 hi) by (split; assumption).
  pose proof (elapsed_nonneg ops1 Htk1) as E1. pose proof (elapsed_nonneg ops2 Htk2) as E2.
  rewrite !fst_run_cons, !NumKill.fst_run_app, !fst_run_cons. cbn [run fst].
  pose proof (start_ts c e t0 0 (sys0 t0 off) None (idleT0 c t0 off)) as P0. pose proof (start_now (sys0 t0 off) c) as N0.
  set (x0 := fst (step (sys0 t0 off) (OStart c))) in *. cbn [sys0 s_w world0 wnow] in N0.
  assert (G0 : GRelT c e t0 1 x0 None None) by exact P0.
  destruct (grun_ts c crit e t0 hi None Hcfg T Y ops1 x0 None 1 G0 Hb1 Htk1 ltac:(rewrite N0; unfold hi; lia) ltac:(lia))
    as [a1 [G1 [_ [F1 W1]]]]. rewrite N0 in W1.
  assert (F1' : flatT a1 = written ops1).
  { destruct a1; cbn [gviewT flatT app] in F1; exact F1. }
  set (x1 := fst (run x0 ops1)) in *.
  pose proof (arm_krel_t c crit e t0 Hcfg (1 + length ops1) x1 a1 k G1) as K2. rewrite W1 in K2.
  set (x2 := fst (step x1 (OSetKill k))) in *.
  split.
  - destruct (krun_kt c crit e t0 hi Hcfg Hcap T Y ops2 _ _ x2 a1 K2 Hb2 Htk2 ltac:(unfold hi; lia) ltac:(lia))
      as [[a' [K' F']] | [d [D F']]].
    + destruct (crash_alive_kt c e t0 _ _ _ a' Hcap K') as [Id Wd]. exists (kd_of a').
      split; [exact Id|]. split; [rewrite flatK_of, F', F1'; reflexivity | exact Wd].
    + destruct (crash_dead_kt c e t0 _ _ _ d D) as [Id Wd]. exists d.
      split; [exact Id|]. split; [rewrite F', F1'; reflexivity | exact Wd].
  - exact (acked_prefix_kt c crit e t0 hi Hcfg Hcap T Y ops2 _ _ x2 a1 K2 Hb2 Htk2 ltac:(unfold hi; lia) ltac:(lia)).
Qed.

(* ------------------------------------------------------------------ the reader's view, current file optional *)
(* ts_view (TsRun.v) with an optional rCURRENT: a kill between the rename of rCURRENT and the creation of the new one leaves none *)
Definition ts_view_opt (c : config) (e : Z) (f : fs) (keys : list key) (closed : list bytes) (ocur : option bytes) : Prop :=
  length keys = length closed
  /\ (forall i, i < length closed ->
        exists j, lookup f (kname c e (nth i keys kd)) = Some j /\ plain (inode f j) /\ content f j = nth i closed [])
  /\ match ocur with
     | Some cur => exists j, lookup f (cname c) = Some j /\ plain (inode f j) /\ content f j = cur
     | None => lookup f (cname c) = None
     end
  /\ (forall n j, lookup f n = Some j -> n = cname c \/ exists i, i < length closed /\ n = kname c e (nth i keys kd))
  /\ NoDup (dir_names f).

Lemma ts_view_opt_some c e f keys closed cur : ts_view_opt c e f keys closed (Some cur) <-> ts_view c e f keys closed cur.
Proof. unfold ts_view_opt, ts_view. tauto. Qed.

Lemma ts_view_opt_spec c c' e f keys closed ocur : c_spec c = c_spec c' ->
  ts_view_opt c e f keys closed ocur -> ts_view_opt c' e f keys closed ocur.
Proof.
  intros E [Hlen [Hcl [Hcur [Hon Hnd]]]]. pose proof (cname_spec_eq c c' E) as En. unfold ts_view_opt. rewrite <- En.
  split; [exact Hlen|]. split; [|split; [exact Hcur|split; [|exact Hnd]]].
  - intros i Hi. rewrite <- (kname_spec_eq c c' e _ E). exact (Hcl i Hi).
  - intros n j L. destruct (Hon n j L) as [->|[i [Hi ->]]]; [left; reflexivity | right].
    exists i. split; [exact Hi | apply kname_spec_eq; exact E].
Qed.

Lemma idleK_view c0 e lo n x d : IdleK c0 e lo n x d ->
  (forall c, c_spec c = c_spec c0 -> ts_view_opt c e (wfs (s_w x)) (keysK d) (closedK d) (ocurK d))
  /\ keys_ok (keysK d) /\ (forall k, In k (keysK d) -> (lo <= fst k <= wnow (s_w x))%Z).
Proof.
  intros [_ [_ [D _]]].
  assert (X : ts_view_opt c0 e (wfs (s_w x)) (keysK d) (closedK d) (ocurK d)
              /\ keys_ok (keysK d) /\ (forall k, In k (keysK d) -> (lo <= fst k <= wnow (s_w x))%Z)).
  { destruct d as [|keys closed cur ts|keys closed]; cbn [dir_k dir_ts keysK closedK ocurK] in *.
    - destruct D as [Hn _]. split; [|split; [constructor | intros k []]].
      split; [reflexivity|]. split; [intros i Hi; cbn in Hi; lia|]. split; [apply lookup_empty; exact Hn|].
      split; [intros m j L; rewrite lookup_empty in L by assumption; discriminate|]. unfold dir_names. rewrite Hn. constructor.
    - destruct D as [wr [[I B] [Hp V]]]. pose proof I as [Q W Hnd Hoff Hc Hcp Hlen Hcl Hon Hko Hrg Htsr Hwr Hcap].
      split; [|split; [exact Hko | intros k Ik; specialize (Hrg k Ik); lia]].
      split; [exact Hlen|]. split.
      { intros i Hi. destruct (Hcl i Hi) as [j [Lj [Pj [Cj _]]]]. eauto. }
      split; [|split; [exact Hon | exact Hnd]].
      exists (wino wr). split; [exact Hc|]. split; [exact Hcp|]. unfold cur_view in V. rewrite Hp, app_nil_r in V. exact V.
    - destruct D as [Q W Hnd Hoff Hnc Hlen Hcl Hon Hko Hrg Hlo].
      split; [|split; [exact Hko | exact Hrg]].
      split; [exact Hlen|]. split; [exact Hcl|]. split; [exact Hnc|]. split; [|exact Hnd].
      intros m j L. right. exact (Hon m j L). }
  destruct X as [V [K R]]. split; [|split; [exact K | exact R]].
  intros c Ec. apply (ts_view_opt_spec c0 c); [symmetry; exact Ec | exact V].
Qed.

(* After any history  OStart c :: ops1 ++ [OSetKill k] ++ ops2 ++ [OCrash]  from the empty directory (Timestamps naming, no
   cleanup, direct mode; ops1, ops2 any basic operations, the clock never goes back; any kill point k) the directory consists
   exactly of the closed files named by keys (second of creation, position within the second) - in the order of their closing -
   and rCURRENT IF IT EXISTS (a kill between the rename of rCURRENT and the creation of the new one leaves none: then all
   files are closed files; keys = closed = [] and no rCURRENT: the empty directory).  Read in this order the files hold
   exactly the acknowledged records: the payloads written by ops1 and those written by the operations of ops2 after which
   the process was still alive.  keys_ok keys: pairwise distinct names, increasing in the order of closing. *)
Theorem timestamps_kill_keeps_acked c crit t0 off ops1 k ops2 :
  tscfg c crit -> tag_ok c -> c_cap c = None ->
  Forall basic_op ops1 -> Forall basic_op ops2 -> Forall tick_ok ops1 -> Forall tick_ok ops2 ->
  let e := ts_e c off in
  (0 <= t0 + e)%Z -> (t0 + elapsed ops1 + elapsed ops2 + e < sec_max)%Z ->
  (N.of_nat (1 + length ops1 + length ops2) <= usize_max)%N ->
  let x1 := fst (run (sys0 t0 off) (OStart c :: ops1 ++ [OSetKill k])) in
  let xe := fst (run (sys0 t0 off) (OStart c :: ops1 ++ [OSetKill k] ++ ops2 ++ [OCrash])) in
  exists keys closed ocur,
    ts_view_opt c e (wfs (s_w xe)) keys closed ocur
    /\ keys_ok keys
    /\ (forall key, In key keys -> (t0 <= fst key <= t0 + elapsed ops1 + elapsed ops2)%Z)
    /\ concat closed ++ (match ocur with Some cu => cu | None => [] end) = written ops1 ++ acked x1 ops2.
Proof.
  intros Hcfg T Hcap Hb1 Hb2 Htk1 Htk2 e Hlo Hhi Hmax x1 xe.
  destruct (kill_history_t c crit t0 off ops1 k ops2 Hcfg Hcap T Hb1 Hb2 Htk1 Htk2 Hlo Hhi Hmax) as [[d [Id [F W]]] _].
  fold xe in Id, W. fold x1 in F. fold e in Id.
  destruct (idleK_view c e t0 _ xe d Id) as [V [K Rg]].
  exists (keysK d), (closedK d), (ocurK d). split; [exact (V c eq_refl)|]. split; [exact K|].
  split; [intros key Ik; specialize (Rg key Ik); rewrite W in Rg; exact Rg | exact F].
Qed.
Print Assumptions timestamps_kill_keeps_acked.

(* what is acknowledged is what a prefix of ops2 wrote *)
Theorem acked_is_prefix_ts c crit t0 off ops1 k ops2 :
  tscfg c crit -> tag_ok c -> c_cap c = None ->
  Forall basic_op ops1 -> Forall basic_op ops2 -> Forall tick_ok ops1 -> Forall tick_ok ops2 ->
  (0 <= t0 + ts_e c off)%Z -> (t0 + elapsed ops1 + elapsed ops2 + ts_e c off < sec_max)%Z ->
  (N.of_nat (1 + length ops1 + length ops2) <= usize_max)%N ->
  exists j, acked (fst (run (sys0 t0 off) (OStart c :: ops1 ++ [OSetKill k]))) ops2 = written (firstn j ops2).
Proof.
  intros Hcfg T Hcap Hb1 Hb2 Htk1 Htk2 Hlo Hhi Hmax.
  exact (proj2 (kill_history_t c crit t0 off ops1 k ops2 Hcfg Hcap T Hb1 Hb2 Htk1 Htk2 Hlo Hhi Hmax)).
Qed.
Print Assumptions acked_is_prefix_ts.

(* ------------------------------------------------------------------ examples (non-vacuity): every kill point of a small history *)
Open Scope string_scope.
(* direct mode, size criterion 3 *)
Definition tsk_cfg (app : bool) : config := ext_cfg (ex_sp "log") app (CSize 3) None false.
Definition tsk_ops1 : list op := [OWrite (bs "abcd"); OWrite (bs "ef")].
Definition tsk_ops2 : list op := [OTrigger; OWrite (bs "gh"); OTick 1; OSnap; OWrite (bs "ijkl"); OWrite (bs "m")].
Definition tsk_hist (app : bool) (k : nat) : list op := OStart (tsk_cfg app) :: tsk_ops1 ++ [OSetKill k] ++ tsk_ops2 ++ [OCrash].
Definition tsk_armed (app : bool) (k : nat) : sys := fst (run (sys0 0 0) (OStart (tsk_cfg app) :: tsk_ops1 ++ [OSetKill k])).

Lemma tsk_cfg_ok app : tscfg (tsk_cfg app) (CSize 3).
Proof. apply ext_cfg_ok. reflexivity. Qed.
Lemma tsk_tag_ok app : tag_ok (tsk_cfg app).
Proof. apply tag_free_ok. split; vm_compute; reflexivity. Qed.
Lemma tsk_basic1 : Forall basic_op tsk_ops1.
Proof. repeat constructor. Qed.
Lemma tsk_basic2 : Forall basic_op tsk_ops2.
Proof. repeat constructor. Qed.
Lemma tsk_ticks1 : Forall tick_ok tsk_ops1.
Proof. repeat constructor. Qed.
Lemma tsk_ticks2 : Forall tick_ok tsk_ops2.
Proof. repeat (apply Forall_cons; [cbn [tick_ok]; first [exact Logic.I | lia]|]); apply Forall_nil. Qed.

(* the kill points of this history (before it: "abcd" closed as <00>, rCURRENT = "ef", born in second 0):
   0 - the rename of rCURRENT (the trigger) is the kill point: nothing changes;
   1 - rCURRENT is renamed to <00>.restart-0000, the creation of the new one is the kill point: NO rCURRENT;
   2 - the trigger is completed (acknowledged, it writes nothing), the write of "gh" is the kill point: rCURRENT is empty;
   3 - "gh" is written, the write of "ijkl" is the kill point;  4 - "ijkl" is written; the write of "m" rotates (6 > 3), its
   rename is the kill point;  5 - renamed (to <00>.restart-0001: rCURRENT was born in second 0, the clock shows 1), the creation
   is the kill point: NO rCURRENT;  6 - created, the write of "m" is the kill point;  7 - everything happens *)
Example tsk_kill_points_dirs :
  List.map (fun k => snap_of (fst (run (sys0 0 0) (tsk_hist false k)))) [0; 1; 2; 3; 4; 5; 6; 7]
  = [ [ (bs "app_r1970-01-01_00-00-00.log", 0%N, bs "abcd"); (bs "app_rCURRENT.log", 0%N, bs "ef") ];
      [ (bs "app_r1970-01-01_00-00-00.log", 0%N, bs "abcd"); (bs "app_r1970-01-01_00-00-00.restart-0000.log", 0%N, bs "ef") ];
      [ (bs "app_r1970-01-01_00-00-00.log", 0%N, bs "abcd"); (bs "app_r1970-01-01_00-00-00.restart-0000.log", 0%N, bs "ef");
        (bs "app_rCURRENT.log", 0%N, []) ];
      [ (bs "app_r1970-01-01_00-00-00.log", 0%N, bs "abcd"); (bs "app_r1970-01-01_00-00-00.restart-0000.log", 0%N, bs "ef");
        (bs "app_rCURRENT.log", 0%N, bs "gh") ];
      [ (bs "app_r1970-01-01_00-00-00.log", 0%N, bs "abcd"); (bs "app_r1970-01-01_00-00-00.restart-0000.log", 0%N, bs "ef");
        (bs "app_rCURRENT.log", 0%N, bs "ghijkl") ];
      [ (bs "app_r1970-01-01_00-00-00.log", 0%N, bs "abcd"); (bs "app_r1970-01-01_00-00-00.restart-0000.log", 0%N, bs "ef");
        (bs "app_r1970-01-01_00-00-00.restart-0001.log", 0%N, bs "ghijkl") ];
      [ (bs "app_r1970-01-01_00-00-00.log", 0%N, bs "abcd"); (bs "app_r1970-01-01_00-00-00.restart-0000.log", 0%N, bs "ef");
        (bs "app_r1970-01-01_00-00-00.restart-0001.log", 0%N, bs "ghijkl"); (bs "app_rCURRENT.log", 0%N, []) ];
      [ (bs "app_r1970-01-01_00-00-00.log", 0%N, bs "abcd"); (bs "app_r1970-01-01_00-00-00.restart-0000.log", 0%N, bs "ef");
        (bs "app_r1970-01-01_00-00-00.restart-0001.log", 0%N, bs "ghijkl"); (bs "app_rCURRENT.log", 0%N, bs "m") ] ]
  /\ List.map (fun k => acked (tsk_armed false k) tsk_ops2) [0; 1; 2; 3; 4; 5; 6; 7]
     = [ []; []; []; bs "gh"; bs "ghijkl"; bs "ghijkl"; bs "ghijkl"; bs "ghijklm" ]
  (* the append flag makes no difference for the killed writer *)
  /\ List.map (fun k => snap_of (fst (run (sys0 0 0) (tsk_hist true k)))) [0; 1; 2; 3; 4; 5; 6; 7]
     = List.map (fun k => snap_of (fst (run (sys0 0 0) (tsk_hist false k)))) [0; 1; 2; 3; 4; 5; 6; 7].
Proof. vm_compute. repeat split; reflexivity. Qed.

(* kill point 5: the directory without rCURRENT *)
Example tsk_kill_instance :
  exists keys closed ocur,
    ts_view_opt (tsk_cfg false) 0 (wfs (s_w (fst (run (sys0 0 0) (tsk_hist false 5))))) keys closed ocur /\ keys_ok keys
    /\ concat closed ++ (match ocur with Some cu => cu | None => [] end) = bs "abcdefghijkl".
Proof.
  destruct (timestamps_kill_keeps_acked (tsk_cfg false) (CSize 3) 0 0 tsk_ops1 5 tsk_ops2 (tsk_cfg_ok false) (tsk_tag_ok false)
              eq_refl tsk_basic1 tsk_basic2 tsk_ticks1 tsk_ticks2) as [keys [closed [ocur [V [K [_ E]]]]]];
    [change (0 <= 0)%Z; lia | change (1 + 0 < sec_max)%Z; unfold sec_max; lia | vm_compute; discriminate |].
  exists keys, closed, ocur. split; [exact V|]. split; [exact K|]. rewrite E. vm_compute. reflexivity.
Qed.

(* a kill in the very first write: the creation of rCURRENT is the kill point (nothing is renamed in the empty directory), the
   directory stays empty; one effect later the empty rCURRENT is there *)
Example tsk_kill_in_first_write :
  List.map (fun k => snap_of (fst (run (sys0 0 0) (OStart (tsk_cfg true) :: [] ++ [OSetKill k] ++ [OWrite (bs "a")] ++ [OCrash])))) [0; 1; 2]
  = [ []; [ (bs "app_rCURRENT.log", 0%N, []) ]; [ (bs "app_rCURRENT.log", 0%N, bs "a") ] ].
Proof. vm_compute. reflexivity. Qed.

Print Assumptions timestamps_kill_keeps_acked.
Print Assumptions acked_is_prefix_ts.
