(* "The listing returns exactly the existing family files the selector asks for".  At every point of every history
   OStart c :: ops  of basic operations the operation  existing_log_files(selector)  (OQuery sel) returns normally, leaves
   the state as it is, and its result satisfies the oracle Oracles/O_Names.oracle_listing on the snapshot of the directory:
   sorted, it is exactly expected_listing.
   - Numbers naming with any cleanup strategy (rotated files r<number>, their archives r<number>...gz, rCURRENT):
     numbers_listing_exact; without cleanup under the hypotheses of numbers_stream alone: numbers_listing_exact_nocleanup;
   - NumbersDirect: numbersdirect_listing_exact;  - Timestamps: timestamps_listing_exact.
   Condition on the selector (custom_ok, custom_ok_d, custom_ok_ts): a custom "current" infix is not the infix of a rotated
   file - such an infix lists that file, as asked, and the oracle does not count it as current (example
   custom_number_infix_listed).  rCURRENT asked for twice (r_current and the custom infix "rCURRENT") is listed once:
   example custom_twice_listed_once. *)
Require Import FL.Base.Bytes FL.Base.BytesFacts FL.Base.PathName FL.Fs.Fs FL.Time.TsFormat FL.Names.FileSpec
  FL.Names.NamesFacts FL.Names.SortFacts FL.Names.FamilyFacts FL.Flw.Model FL.Flw.ModelFacts FL.Flw.NumInv FL.Flw.Run
  FL.Flw.RunFacts FL.Flw.NumRun FL.Oracles.O_Flw FL.Oracles.ReaderOrder FL.Oracles.O_Names FL.Flw.NumTheorems
  FL.Flw.NumListing FL.Flw.NumRestart FL.Flw.NumDInv FL.Flw.NumDRun FL.Flw.NumDTheorems FL.Flw.CleanupFacts
  FL.Flw.NumCleanupNames FL.Flw.NumCleanupStep FL.Flw.NumCleanupRun FL.Flw.NumCleanup FL.Flw.TsCal FL.Flw.TsTime
  FL.Flw.TsNames FL.Flw.TsInv FL.Flw.TsRun FL.Flw.TsTheorems FL.Flw.TsReader FL.Flw.NumKillRestart FL.Flw.NoPanic
  FL.Flw.TsParse FL.Flw.NamesDocumented.
From Coq Require Import Permutation Sorted.
Open Scope nat_scope.

(* ------------------------------------------------------------------ sorted lists of names *)
Definition le_rel (x y : bytes) : Prop := lex_le x y = true.

Lemma insert_name_sorted x l : StronglySorted le_rel l -> StronglySorted le_rel (insert_name x l).
Proof.
  induction 1 as [|y l Hs IH Hy]; cbn [insert_name]; [constructor; constructor|].
  destruct (lex_le x y) eqn:E.
  - constructor; [constructor; assumption|]. constructor; [exact E|]. rewrite Forall_forall in *. intros z Hz.
    exact (lex_le_trans _ _ _ E (Hy z Hz)).
  - constructor; [exact IH|]. rewrite Forall_forall in *. intros z Hz. apply insert_name_in' in Hz. destruct Hz as [->|Hz].
    + destruct (lex_le_total x y) as [X|X]; [congruence | exact X].
    + exact (Hy z Hz).
Qed.

Lemma sort_names_sorted l : StronglySorted le_rel (sort_names l).
Proof. induction l as [|x l IH]; cbn [sort_names fold_right]; [constructor|]. apply insert_name_sorted. exact IH. Qed.

(* two duplicate-free lists with the same members are sorted into the same list *)
Lemma sort_names_same a b : NoDup a -> NoDup b -> (forall n, In n a <-> In n b) -> sort_names a = sort_names b.
Proof.
  intros Na Nb E. apply (sorted_unique le_rel).
  - intros x y. apply lex_le_antisym.
  - apply sort_names_sorted.
  - apply sort_names_sorted.
  - apply sort_names_nodup. exact Na.
  - apply sort_names_nodup. exact Nb.
  - intros n. rewrite !sort_names_in'. apply E.
Qed.

Lemma names_beq_refl l : names_beq l l = true.
Proof. induction l as [|x l IH]; cbn [names_beq]; [reflexivity|]. rewrite beq_refl, IH. reflexivity. Qed.

Lemma nodup_app_disjoint {A} (a b : list A) : NoDup a -> NoDup b -> (forall n, In n a -> ~ In n b) -> NoDup (a ++ b).
Proof.
  induction 1 as [|x a Hx Na IH]; intros Nb D; cbn [app]; [exact Nb|]. constructor.
  - intros I. apply in_app_or in I. destruct I as [I|I]; [exact (Hx I) | exact (D x (or_introl eq_refl) I)].
  - apply IH; [exact Nb|]. intros n Hn. apply D. right. exact Hn.
Qed.

(* ------------------------------------------------------------------ the selector *)
Definition custom_ok (sel : selector) : Prop :=
  match sel_custom sel with
  | None => True
  | Some x => forall i, x <> number_infix i
  end.

(* the four filters of existing_rot as one list *)
Definition p_plain (off : Z) (c : config) (sel : selector) (n : bytes) : bool :=
  sel_plain sel && qf off (fsfx (c_spec c)) (fixed0 c) IFNum (fsfx (c_spec c)) n.
Definition p_gz (off : Z) (c : config) (sel : selector) (n : bytes) : bool :=
  sel_gz sel && qf off (fsfx (c_spec c)) (fixed0 c) IFNum (Some gz_sfx) n.
Definition p_cur (off : Z) (c : config) (sel : selector) (n : bytes) : bool :=
  sel_rcur sel && qf off (fsfx (c_spec c)) (fixed0 c) (IFEq cur_infix) (fsfx (c_spec c)) n.
(* the custom current infix: not a second time, if it is rCURRENT and rCURRENT is listed already *)
Definition p_custom (off : Z) (c : config) (sel : selector) (n : bytes) : bool :=
  match sel_custom sel with
  | Some x => if sel_rcur sel && beq x cur_infix then false else qf off (fsfx (c_spec c)) (fixed0 c) (IFEq x) (fsfx (c_spec c)) n
  | None => false
  end.

Lemma filter_false {A} (l : list A) : filter (fun _ => false) l = [].
Proof. induction l; cbn [filter]; auto. Qed.

Lemma existing_rot_filters off c f sel :
  existing_rot off (c_spec c) (fixed0 c) f IFNum sel =
  let rel := related_files f (fsfx (c_spec c)) (fixed0 c) in
  Some (((filter (p_plain off c sel) rel ++ filter (p_gz off c sel) rel) ++ filter (p_cur off c sel) rel) ++ filter (p_custom off c sel) rel).
Proof.
  unfold existing_rot, p_plain, p_gz, p_cur, p_custom. cbv zeta.
  destruct (sel_custom sel) as [y|]; rewrite ?filter_files_total; [destruct (sel_rcur sel && beq y cur_infix)|];
    destruct (sel_plain sel), (sel_gz sel), (sel_rcur sel); cbn [andb app_opt]; cbv iota; rewrite ?filter_false; reflexivity.
Qed.

(* ------------------------------------------------------------------ the names of the directory, one by one *)
Lemma cur_infix_no_dot : no_dot cur_infix.
Proof. unfold no_dot, cur_infix. cbn [In]. intros H. repeat (destruct H as [H|H]; [discriminate|]). exact H. Qed.

Lemma candidate_cname c : infix_candidate (fsfx (c_spec c)) (fsfx (c_spec c)) (fixed0 c) (cname c) = Some cur_infix.
Proof.
  apply family_is_candidate, family_plain_alt. exists []. split; [left; reflexivity|]. split; [apply cur_infix_nonempty|].
  split; [apply cur_infix_no_dot|]. rewrite cname_shape, app_nil_r. unfold sfxs. rewrite <- app_assoc. reflexivity.
Qed.

Lemma candidate_rname c i :
  infix_candidate (fsfx (c_spec c)) (fsfx (c_spec c)) (fixed0 c) (rname c i) = Some (number_infix (N.of_nat i)).
Proof.
  apply family_is_candidate, family_plain_alt. exists []. split; [left; reflexivity|]. split; [apply number_infix_nonempty|].
  split; [apply number_infix_no_dot|]. rewrite rname_shape, app_nil_r, number_infix_digs, <- app_assoc. reflexivity.
Qed.

(* an archive is not a member of the plain listing, whatever the infix filter *)
Lemma candidate_gname c i : sfx_ok (c_spec c) ->
  infix_candidate (fsfx (c_spec c)) (fsfx (c_spec c)) (fixed0 c) (gname c i) = None.
Proof.
  intros H. rewrite infix_candidate_plain, gname_app, rname_shape. unfold sfxs, sfx_ok in *.
  destruct (fsfx (c_spec c)) as [s|].
  - unfold dot_gz. rewrite <- !app_assoc, (app_assoc (under (fixed0 c))).
    change (dot :: s ++ dot :: gz_sfx) with ((dot :: s) ++ dot :: gz_sfx).
    rewrite (strip_sfx_gz_none s _ H). reflexivity.
  - rewrite app_nil_r.
    destruct (cand_core (fixed0 c) ((under (fixed0 c) ++ r_char :: digs (N.of_nat i)) ++ dot_gz)) as [infix|] eqn:E; [exfalso | reflexivity].
    apply cand_core_spec in E. destruct E as (rs & Hrs & Hnd & _ & E).
    rewrite <- app_assoc in E. apply app_inv_head in E.
    assert (Hd : ~ In dot (r_char :: digs (N.of_nat i))) by (rewrite <- number_infix_digs; apply number_infix_no_dot).
    destruct Hrs as [->|(d & -> & _ & _)].
    + rewrite app_nil_r in E. apply Hnd. rewrite <- E. apply in_or_app. right. left. reflexivity.
    + unfold dot_gz in E. apply first_dot_unique in E; [|exact Hd | exact Hnd]. destruct E as [_ E]. discriminate E.
Qed.

Lemma number_infix_ne_cur i : beq (number_infix i) cur_infix = false.
Proof. apply beq_neq. apply number_infix_not_cur. Qed.

(* what the custom current infix adds for the file rCURRENT *)
Definition cur_custom (sel : selector) : bool :=
  match sel_custom sel with Some x => if sel_rcur sel && beq x cur_infix then false else beq cur_infix x | None => false end.

Lemma cur_custom_spec sel :
  (sel_rcur sel = true -> cur_custom sel = false)
  /\ sel_rcur sel || cur_custom sel = sel_rcur sel || match sel_custom sel with Some x => beq cur_infix x | None => false end.
Proof.
  unfold cur_custom. destruct (sel_custom sel) as [x|]; [|split; reflexivity].
  rewrite (beq_sym cur_infix x). destruct (sel_rcur sel), (beq x cur_infix); cbn [andb orb]; split;
    first [discriminate | intros; reflexivity].
Qed.

Lemma insert_name_perm x l : Permutation (insert_name x l) (x :: l).
Proof.
  induction l as [|y l IH]; cbn [insert_name]; [apply Permutation_refl|]. destruct (lex_le x y); [apply Permutation_refl|].
  eapply Permutation_trans; [apply perm_skip, IH | apply perm_swap].
Qed.
Lemma sort_names_perm l : Permutation (sort_names l) l.
Proof.
  induction l as [|x l IH]; cbn [sort_names fold_right]; [apply Permutation_refl|]. fold (sort_names l).
  eapply Permutation_trans; [apply insert_name_perm | apply perm_skip, IH].
Qed.

Lemma sorted_perm_eq : forall l1 l2 : list bytes, StronglySorted le_rel l1 -> StronglySorted le_rel l2 -> Permutation l1 l2 -> l1 = l2.
Proof.
  induction l1 as [|x l1 IH]; intros [|y l2] S1 S2 P.
  - reflexivity.
  - apply Permutation_nil in P. discriminate.
  - apply Permutation_sym, Permutation_nil in P. discriminate.
  - inversion S1 as [|? ? S1' F1]; subst. inversion S2 as [|? ? S2' F2]; subst. rewrite Forall_forall in F1, F2.
    assert (Exy : x = y).
    { assert (Ix : In x (y :: l2)) by (apply (Permutation_in _ P); left; reflexivity).
      assert (Iy : In y (x :: l1)) by (apply (Permutation_in _ (Permutation_sym P)); left; reflexivity).
      destruct Ix as [->|Ix]; [reflexivity|]. destruct Iy as [->|Iy]; [reflexivity|].
      apply lex_le_antisym; [apply F1, Iy | apply F2, Ix]. }
    subst y. f_equal. apply IH; [assumption | assumption | exact (Permutation_cons_inv P)].
Qed.

Lemma sort_names_of_perm a b : Permutation a b -> sort_names a = sort_names b.
Proof.
  intros P. apply sorted_perm_eq; [apply sort_names_sorted | apply sort_names_sorted|].
  eapply Permutation_trans; [apply sort_names_perm|]. eapply Permutation_trans; [exact P | apply Permutation_sym, sort_names_perm].
Qed.

Lemma perm_filter {A} (p : A -> bool) l l' : Permutation l l' -> Permutation (filter p l) (filter p l').
Proof.
  induction 1 as [|x l l' P IH|x y l|l l' l'' P1 IH1 P2 IH2]; cbn [filter].
  - constructor.
  - destruct (p x); [apply perm_skip|]; exact IH.
  - destruct (p x), (p y); try apply Permutation_refl. apply perm_swap.
  - eapply Permutation_trans; eassumption.
Qed.

Lemma perm_filter_app {A} (p q : A -> bool) l : (forall n, In n l -> p n = true -> q n = false) ->
  Permutation (filter p l ++ filter q l) (filter (fun n => p n || q n) l).
Proof.
  induction l as [|x l IH]; intros D; cbn [filter]; [constructor|].
  assert (IH' := IH (fun n Hn => D n (or_intror Hn))).
  destruct (p x) eqn:Px.
  - rewrite (D x (or_introl eq_refl) Px). cbn [orb app]. apply perm_skip. exact IH'.
  - cbn [orb]. destruct (q x); [|exact IH']. eapply Permutation_trans; [apply Permutation_sym, Permutation_middle|].
    apply perm_skip. exact IH'.
Qed.

Lemma names_of_selected (S : ReaderOrder.entry -> bool) f : forall ns,
  List.map (fun e : ReaderOrder.entry => fst (fst e)) (filter S (List.map (snap_entry f) ns)) = filter (fun n => S (snap_entry f n)) ns.
Proof.
  induction ns as [|n ns IH]; cbn [List.map filter]; [reflexivity|]. destruct (S (snap_entry f n)); cbn [List.map]; rewrite IH; [|reflexivity].
  rewrite snap_entry_name. reflexivity.
Qed.

Section Generic.
Variables (c : config) (sel : selector) (f : fs) (p1 p2 p3 p4 : bytes -> bool).
Hypothesis Hreg : forall n, In n (dir_names f) -> is_reg_file f n && is_prefix (fixed0 c) n = true.
Hypothesis Hsel : forall n, In n (dir_names f) ->
  (p1 n = true -> p2 n = false) /\ (p1 n || p2 n = true -> p3 n = false) /\ ((p1 n || p2 n) || p3 n = true -> p4 n = false)
  /\ ((p1 n || p2 n) || p3 n) || p4 n = selected sel c (snap_entry f n).

Let rel := related_files f (fsfx (c_spec c)) (fixed0 c).

Lemma rel_perm_dir : Permutation rel (dir_names f).
Proof.
  unfold rel, related_files. eapply Permutation_trans; [apply Permutation_sym, Permutation_rev|].
  eapply Permutation_trans; [apply sort_by_key_perm|]. rewrite filter_true_all by exact Hreg. apply Permutation_refl.
Qed.

Lemma generic_oracle :
  oracle_listing sel c (snap_list f) (((filter p1 rel ++ filter p2 rel) ++ filter p3 rel) ++ filter p4 rel) = true.
Proof.
  assert (V : forall n, In n rel -> _) by (intros n Hn; apply (Permutation_in _ rel_perm_dir) in Hn; exact (Hsel n Hn)).
  unfold oracle_listing, expected_listing.
  rewrite (sort_names_of_perm _ (List.map (fun e : ReaderOrder.entry => fst (fst e)) (filter (selected sel c) (snap_list f)))); [apply names_beq_refl|].
  unfold snap_list. rewrite names_of_selected.
  set (P := fun n => ((p1 n || p2 n) || p3 n) || p4 n).
  apply Permutation_trans with (filter P rel).
  - eapply Permutation_trans; [apply Permutation_app_tail|].
    { eapply Permutation_trans; [apply Permutation_app_tail, (perm_filter_app p1 p2 rel); intros n Hn; apply (V n Hn)|].
      apply (perm_filter_app (fun n => p1 n || p2 n) p3 rel). intros n Hn. apply (V n Hn). }
    apply (perm_filter_app (fun n => (p1 n || p2 n) || p3 n) p4 rel). intros n Hn. apply (V n Hn).
  - apply Permutation_trans with (filter P (dir_names f)); [apply perm_filter, rel_perm_dir|].
    rewrite (filter_ext_in P (fun n => selected sel c (snap_entry f n)) (dir_names f)) by (intros n Hn; apply (Hsel n Hn)).
    apply perm_filter, Permutation_sym, sort_names_perm.
Qed.
End Generic.

(* the custom current infix is not the infix of a numbered file (NumbersDirect has no current infix of its own) *)
Definition custom_ok_d (sel : selector) : Prop :=
  match sel_custom sel with None => True | Some x => forall i, x <> number_infix i end.

Lemma rname_filters_d off c sel i : sfx_ok (c_spec c) -> custom_ok_d sel ->
  p_plain off c sel (rname c i) = sel_plain sel /\ p_gz off c sel (rname c i) = false
  /\ p_cur off c sel (rname c i) = false /\ p_custom off c sel (rname c i) = false.
Proof.
  intros Hsfx Hsel.
  unfold p_plain, p_gz, p_cur, p_custom. rewrite qf_rname, (qf_rname_gz off c i Hsfx), andb_true_r, andb_false_r.
  split; [reflexivity|]. split; [reflexivity|]. unfold qf. rewrite candidate_rname. cbn [filter_infix].
  rewrite number_infix_ne_cur, andb_false_r. split; [reflexivity|].
  unfold custom_ok_d in Hsel. destruct (sel_custom sel) as [x|]; [|reflexivity].
  assert (E : beq (number_infix (N.of_nat i)) x = false) by (apply beq_neq; intros E; exact (Hsel _ (eq_sym E))).
  rewrite E. destruct (sel_rcur sel && beq x cur_infix); reflexivity.
Qed.

Section Names.
Variables (off : Z) (c : config) (crit : criterion) (k : cleanup) (sel : selector).
Hypothesis Hrot : c_rot c = Some (crit, NNumbers, k).
Hypothesis Hsfx : sfx_ok (c_spec c).
Hypothesis Hsel : custom_ok sel.

Let sfx := fsfx (c_spec c).

(* what the model's filters and the oracle's selection say: rCURRENT *)
Lemma cname_filters :
  p_plain off c sel (cname c) = false /\ p_gz off c sel (cname c) = false
  /\ p_cur off c sel (cname c) = sel_rcur sel
  /\ p_custom off c sel (cname c) = cur_custom sel.
Proof.
  unfold p_plain, p_gz, p_cur, p_custom, cur_custom. rewrite !qf_cname, !andb_false_r. split; [reflexivity|]. split; [reflexivity|].
  unfold qf. rewrite candidate_cname. cbn [filter_infix]. rewrite beq_refl, andb_true_r. split; reflexivity.
Qed.

Lemma cname_selected d :
  selected sel c (cname c, 0%N, d) = sel_rcur sel || match sel_custom sel with Some x => beq cur_infix x | None => false end.
Proof.
  unfold selected, classify_entry. rewrite Hrot. change (fixed_name_part (c_spec c) []) with (fixed0 c).
  rewrite (full_infix_cname c Hsfx). change (0 =? 1)%N with false. change (0 =? 0)%N with true. cbv iota.
  unfold cur_infix_of. rewrite Hrot. rewrite !beq_refl, andb_true_r.
  destruct (sel_custom sel) as [x|]; [rewrite (beq_sym x)|]; reflexivity.
Qed.

(* a rotated file *)
Lemma rname_filters i :
  p_plain off c sel (rname c i) = sel_plain sel /\ p_gz off c sel (rname c i) = false
  /\ p_cur off c sel (rname c i) = false /\ p_custom off c sel (rname c i) = false.
Proof. exact (rname_filters_d off c sel i Hsfx Hsel). Qed.

Lemma rname_selected i d : selected sel c (rname c i, 0%N, d) = sel_plain sel.
Proof.
  unfold selected, classify_entry. rewrite Hrot. change (fixed_name_part (c_spec c) []) with (fixed0 c).
  rewrite (full_infix_rname c i Hsfx). change (0 =? 1)%N with false. change (0 =? 0)%N with true. cbv iota.
  unfold cur_infix_of. rewrite Hrot. rewrite number_infix_ne_cur, (valid_number_infix NNumbers None _ eq_refl). reflexivity.
Qed.

(* an archive *)
Lemma gname_filters i :
  p_plain off c sel (gname c i) = false /\ p_gz off c sel (gname c i) = sel_gz sel
  /\ p_cur off c sel (gname c i) = false /\ p_custom off c sel (gname c i) = false.
Proof.
  unfold p_plain, p_gz, p_cur, p_custom. rewrite (qf_gname_plain off c i Hsfx), (qf_gname_gz off c i Hsfx), andb_true_r, andb_false_r.
  split; [reflexivity|]. split; [reflexivity|]. unfold qf. rewrite (candidate_gname c i Hsfx), andb_false_r.
  split; [reflexivity|]. destruct (sel_custom sel) as [x|]; [destruct (sel_rcur sel && beq x cur_infix)|]; reflexivity.
Qed.

Lemma gname_selected i d : selected sel c (gname c i, 1%N, d) = sel_gz sel.
Proof.
  unfold selected, classify_entry. rewrite Hrot. change (fixed_name_part (c_spec c) []) with (fixed0 c).
  rewrite (full_infix_gname c i Hsfx). change (1 =? 1)%N with true. cbv iota.
  rewrite (valid_number_infix NNumbers None _ eq_refl). reflexivity.
Qed.

(* ------------------------------------------------------------------ a directory of the invariant's shape *)
Variables (f : fs) (closed : list bytes) (lo mid : nat) (jc : nat).
Hypothesis KD : kdir c f closed lo mid.
Hypothesis Lc : lookup f (cname c) = Some jc.
Hypothesis Pc : plain (inode f jc).

Inductive dcase (n : bytes) : Prop :=
| DCur (d : bytes) : n = cname c -> snap_entry f n = (n, 0%N, d) -> dcase n
| DRot (i : nat) (d : bytes) : n = rname c i -> snap_entry f n = (n, 0%N, d) -> dcase n
| DGz (i : nat) (d : bytes) : n = gname c i -> snap_entry f n = (n, 1%N, d) -> dcase n.

Lemma dir_cases n : In n (dir_names f) -> dcase n /\ is_reg_file f n = true /\ is_prefix (fixed0 c) n = true.
Proof.
  intros I. apply dir_names_lookup in I. destruct I as [j Lj].
  destruct (kd_only _ _ _ _ _ KD n j Lj) as [->|[[i [Hi ->]]|[i [Hi ->]]]].
  - destruct Pc as [Pg Pd]. split; [|split].
    + apply (DCur _ (fdata (inode f jc)) eq_refl). unfold snap_entry, file_of. rewrite Lc, Pd, Pg. reflexivity.
    + unfold is_reg_file, file_of. rewrite Lc, Pd. reflexivity.
    + rewrite cname_shape. apply is_prefix_under.
  - destruct (kd_plain _ _ _ _ _ KD i Hi) as [j' [Lj' [[Pg Pd] _]]]. split; [|split].
    + apply (DRot _ i (fdata (inode f j')) eq_refl). unfold snap_entry, file_of. rewrite Lj', Pd, Pg. reflexivity.
    + unfold is_reg_file, file_of. rewrite Lj', Pd. reflexivity.
    + rewrite rname_shape. apply is_prefix_under.
  - destruct (kd_arch _ _ _ _ _ KD i Hi) as [j' [Lj' [_ [Pg Pd]]]]. split; [|split].
    + apply (DGz _ i (fdata (inode f j')) eq_refl). unfold snap_entry, file_of. rewrite Lj', Pd, Pg. reflexivity.
    + unfold is_reg_file, file_of. rewrite Lj', Pd. reflexivity.
    + rewrite gname_app, rname_shape, <- app_assoc. apply is_prefix_under.
Qed.

(* the model's filters are pairwise disjoint on the directory, and together they select what the oracle selects *)
Lemma filters_vs_oracle n : In n (dir_names f) ->
  (p_plain off c sel n = true -> p_gz off c sel n = false)
  /\ (p_plain off c sel n || p_gz off c sel n = true -> p_cur off c sel n = false)
  /\ ((p_plain off c sel n || p_gz off c sel n) || p_cur off c sel n = true -> p_custom off c sel n = false)
  /\ ((p_plain off c sel n || p_gz off c sel n) || p_cur off c sel n) || p_custom off c sel n = selected sel c (snap_entry f n).
Proof.
  intros I. destruct (dir_cases n I) as [[d -> Es|i d -> Es|i d -> Es] _]; rewrite Es.
  - destruct cname_filters as (-> & -> & -> & ->). rewrite cname_selected. cbn [orb].
    split; [discriminate|]. split; [discriminate|]. exact (cur_custom_spec sel).
  - destruct (rname_filters i) as (-> & -> & -> & ->). rewrite rname_selected, !orb_false_r. auto.
  - destruct (gname_filters i) as (-> & -> & -> & ->). rewrite gname_selected, !orb_false_r. cbn [orb]. split; [discriminate | auto].
Qed.

Let rel := related_files f sfx (fixed0 c).

Definition listed : list bytes :=
  ((filter (p_plain off c sel) rel ++ filter (p_gz off c sel) rel) ++ filter (p_cur off c sel) rel) ++ filter (p_custom off c sel) rel.

(* the oracle accepts the list *)
Lemma listed_oracle : oracle_listing sel c (snap_list f) listed = true.
Proof.
  apply (generic_oracle c sel f).
  - intros n I. destruct (dir_cases n I) as [_ [R P]]. rewrite R, P. reflexivity.
  - exact filters_vs_oracle.
Qed.
End Names.

(* ------------------------------------------------------------------ the query on a state of the invariant *)
Lemma names_beq_eq : forall a b, names_beq a b = true -> a = b.
Proof.
  induction a as [|x a IH]; intros [|y b] H; cbn [names_beq] in H; try discriminate; [reflexivity|].
  apply andb_prop in H. destruct H as [H1 H2]. apply beq_eq in H1. subst y. f_equal. apply IH. exact H2.
Qed.

(* before the first record: the directory is empty, and so is the listing *)
Lemma query_fresh c crit nm k x sel :
  c_rot c = Some (crit, nm, k) -> s_flw x = Some (new_flw c) -> quiet (s_w x) -> names (wfs (s_w x)) = [] ->
  exists l, sync_step x (OQuery sel) = (x, ObsList 0%N l) /\ oracle_listing sel c (snap_list (wfs (s_w x))) l = true.
Proof.
  intros Hrot Es Q Hn. cbn [sync_step]. rewrite Es. cbn [new_flw f_poisoned]. unfold query. cbn [new_flw f_cfg f_inner]. rewrite Hrot.
  unfold with_listing. rewrite (tick_quiet _ Q), existing_rot_empty by exact Hn.
  fold (new_flw c). cbv beta iota. rewrite (sys_eta x _ Es). exists []. split; [reflexivity|].
  unfold oracle_listing, expected_listing, snap_list, dir_names. rewrite Hn. reflexivity.
Qed.

(* the entry of a plain file *)
Lemma plain_entry f n j : lookup f n = Some j -> plain (inode f j) ->
  is_reg_file f n = true /\ snap_entry f n = (n, 0%N, fdata (inode f j)).
Proof. intros Lj [Pg Pd]. unfold snap_entry, is_reg_file, file_of. rewrite Lj, Pd, Pg. split; reflexivity. Qed.

Lemma query_relk c crit k x a sel :
  numkcfg c crit k -> not_gz c -> custom_ok sel -> RelK c crit k x a ->
  exists l, step x (OQuery sel) = (x, ObsList 0%N l) /\ oracle_listing sel c (snap_of x) l = true.
Proof.
  intros Hcfg G Hsel R. rewrite (step_sync_rel_k c crit k x a (OQuery sel) Hcfg R). cbn [sync_step].
  destruct Hcfg as (Hrot & Hts & _). destruct R as [_ [_ R]]. rewrite snap_of_list. destruct a as [[closed cur]|].
  - destruct R as [wr [roll [Es [I _]]]]. rewrite Es. cbn [st_ofk f_poisoned]. unfold query.
    cbn [st_ofk f_cfg f_inner mk_rsk rs_naming ns_filter]. unfold with_listing.
    rewrite (tick_quiet _ (nk_quiet _ _ _ _ _ _ I)), (fixed_of_fixed0 c _ Hts), existing_rot_filters. cbv zeta.
    fold (st_ofk c k (length closed) roll wr). cbv beta iota. rewrite (sys_eta x _ Es).
    eexists. split; [reflexivity|].
    exact (listed_oracle (woff (s_w x)) c crit k sel Hrot G Hsel (wfs (s_w x)) closed _ _ (wino wr)
             (nk_dir _ _ _ _ _ _ I) (nk_cur _ _ _ _ _ _ I) (nk_curplain _ _ _ _ _ _ I)).
  - destruct R as [Es [Q [Hn _]]]. exact (query_fresh c _ _ _ x sel Hrot Es Q Hn).
Qed.

(* THE THEOREM.  For every history of basic operations, every selector (custom_ok) and every cleanup strategy: in the state
   after  OStart c :: ops  the listing operation returns normally (code 0), changes nothing, and the oracle accepts its result
   for the snapshot of the directory: sorted, the result is exactly expected_listing sel c (snapshot). *)
Theorem numbers_listing_exact c crit k t0 off ops sel :
  numkcfg c crit k -> not_gz c -> Forall basic_op ops -> custom_ok sel ->
  kside c k (nclosed (a_run None ops (snd (run (fst (step (sys0 t0 off) (OStart c))) ops)))) ->
  let x := fst (run (sys0 t0 off) (OStart c :: ops)) in
  exists l, step x (OQuery sel) = (x, ObsList 0%N l)
            /\ oracle_listing sel c (snap_of x) l = true
            /\ sort_names l = expected_listing sel c (snap_of x).
Proof.
  intros Hcfg G Hb Hsel Hside x. unfold x. clear x. cbn [run]. destruct (step (sys0 t0 off) (OStart c)) as [x0 ob0] eqn:E0.
  pose proof (start_rel_k c crit k t0 off) as R0. rewrite E0 in R0. cbn [fst] in R0, Hside.
  pose proof (run_rel_k c crit k Hcfg ops x0 None R0 Hb Hside) as R1. destruct (run x0 ops) as [x1 obs1]. cbn [fst snd] in *.
  destruct (query_relk c crit k x1 _ sel Hcfg G Hsel R1) as [l [E O]]. exists l. split; [exact E|]. split; [exact O|].
  apply names_beq_eq. exact O.
Qed.
Print Assumptions numbers_listing_exact.

(* ------------------------------------------------------------------ instances *)
Import String.StringSyntax.
Open Scope string_scope.

Definition sel_all : selector := {| sel_plain := true; sel_gz := true; sel_rcur := true; sel_custom := None |}.
Definition lx_c : config := NumCleanup.ex_cfg (KLogGz 1 1) log_sfx.
Definition lx_x : sys := fst (run (sys0 0 0) (OStart lx_c :: ex_ops)).

Example listing_instance_computed :
  snd (step lx_x (OQuery sel_all)) = ObsList 0%N [bs "a_r00004.log"; bs "a_r00003.log.gz"; bs "a_rCURRENT.log"]
  /\ snd (step lx_x (OQuery sel_log_gz)) = ObsList 0%N [bs "a_r00004.log"; bs "a_r00003.log.gz"]
  /\ expected_listing sel_all lx_c (snap_of lx_x) = [bs "a_r00003.log.gz"; bs "a_r00004.log"; bs "a_rCURRENT.log"].
Proof. vm_compute. repeat split; reflexivity. Qed.

Example listing_instance sel : custom_ok sel ->
  exists l, step lx_x (OQuery sel) = (lx_x, ObsList 0%N l) /\ oracle_listing sel lx_c (snap_of lx_x) l = true
            /\ sort_names l = expected_listing sel lx_c (snap_of lx_x).
Proof.
  intros Hsel. apply (numbers_listing_exact lx_c (CSize 3) (KLogGz 1 1) 0 0 ex_ops sel); try assumption.
  - apply ex_numkcfg.
  - apply ex_not_gz.
  - exact ex_ops_basic.
  - exact ex_sfx_ok.
Qed.

(* rCURRENT asked for twice - as r_current and as the custom current infix "rCURRENT" -: the file is listed once (the repaired
   listing leaves out the custom filter in this case), the oracle accepts, and the selector satisfies custom_ok *)
Example custom_twice_listed_once :
  let sel := {| sel_plain := false; sel_gz := false; sel_rcur := true; sel_custom := Some cur_infix |} in
  snd (step lx_x (OQuery sel)) = ObsList 0%N [bs "a_rCURRENT.log"]
  /\ expected_listing sel lx_c (snap_of lx_x) = [bs "a_rCURRENT.log"]
  /\ oracle_listing sel lx_c (snap_of lx_x) [bs "a_rCURRENT.log"] = true
  /\ custom_ok sel.
Proof.
  cbv zeta. split; [vm_compute; reflexivity|]. split; [vm_compute; reflexivity|]. split; [vm_compute; reflexivity|].
  intros i E. exact (number_infix_not_cur i (eq_sym E)).
Qed.

(* the custom current infix alone lists rCURRENT as well *)
Example custom_rcurrent_alone :
  let sel := {| sel_plain := false; sel_gz := false; sel_rcur := false; sel_custom := Some cur_infix |} in
  snd (step lx_x (OQuery sel)) = ObsList 0%N [bs "a_rCURRENT.log"]
  /\ oracle_listing sel lx_c (snap_of lx_x) [bs "a_rCURRENT.log"] = true.
Proof. cbv zeta. split; vm_compute; reflexivity. Qed.

(* custom_ok is needed for the oracle (not a defect of the listing): a custom current infix that is the infix of a rotated file
   lists that file, as asked (twice, when the plain files are asked for as well); the oracle does not count it as current *)
Example custom_number_infix_listed :
  let sel := {| sel_plain := false; sel_gz := false; sel_rcur := false; sel_custom := Some (bs "r00004") |} in
  snd (step lx_x (OQuery sel)) = ObsList 0%N [bs "a_r00004.log"]
  /\ expected_listing sel lx_c (snap_of lx_x) = []
  /\ oracle_listing sel lx_c (snap_of lx_x) [bs "a_r00004.log"] = false
  /\ ~ custom_ok sel.
Proof.
  cbv zeta. split; [vm_compute; reflexivity|]. split; [vm_compute; reflexivity|]. split; [vm_compute; reflexivity|].
  intros H. apply (H 4%N). vm_compute. reflexivity.
Qed.

(* ====================================================================================================================
   The same by permutations: no hypothesis that the names of the directory are pairwise different.  Used for NumbersDirect,
   and for Numbers without the flag c_bg. *)
Close Scope string_scope.

(* ------------------------------------------------------------------ NumbersDirect *)
Lemma rname_selected_d c crit k sel i d : c_rot c = Some (crit, NNumbersDirect, k) -> sfx_ok (c_spec c) ->
  selected sel c (rname c i, 0%N, d) = sel_plain sel.
Proof.
  intros Hrot Hsfx. unfold selected, classify_entry. rewrite Hrot. change (fixed_name_part (c_spec c) []) with (fixed0 c).
  rewrite (full_infix_rname c i Hsfx). change (0 =? 1)%N with false. change (0 =? 0)%N with true. cbv iota.
  unfold cur_infix_of. rewrite Hrot. rewrite (valid_number_infix NNumbersDirect None _ eq_refl). reflexivity.
Qed.

Lemma query_reld c crit x a sel :
  numdcfg c crit -> not_gz c -> custom_ok_d sel -> RelD c crit x a ->
  exists l, step x (OQuery sel) = (x, ObsList 0%N l) /\ oracle_listing sel c (snap_of x) l = true.
Proof.
  intros Hcfg G Hsel R. rewrite (step_sync_rel_d c crit x a (OQuery sel) Hcfg R). cbn [sync_step].
  destruct Hcfg as (Hrot & Hts & _). destruct R as [_ [_ R]]. rewrite snap_of_list. destruct a as [[closed cur]|].
  - destruct R as [wr [roll [Es [I _]]]]. rewrite Es. cbn [st_of_d f_poisoned]. unfold query.
    cbn [st_of_d f_cfg f_inner mk_rs rs_naming ns_filter]. unfold with_listing.
    rewrite (tick_quiet _ (nd_quiet _ _ _ _ I)), (fixed_of_fixed0 c _ Hts), existing_rot_filters. cbv zeta.
    fold (st_of_d c (length closed) roll wr). cbv beta iota. rewrite (sys_eta x _ Es).
    eexists. split; [reflexivity|].
    assert (Plain : forall n, In n (dir_names (wfs (s_w x))) -> exists i d, n = rname c i /\ snap_entry (wfs (s_w x)) n = (n, 0%N, d)
                              /\ is_reg_file (wfs (s_w x)) n = true).
    { intros n In_. apply dir_names_lookup in In_. destruct In_ as [j Lj].
      destruct (nd_only _ _ _ _ I n j Lj) as [i [Hi ->]].
      assert (Pj : plain (inode (wfs (s_w x)) j)).
      { destruct (Nat.eq_dec i (length closed)) as [->|Hne].
        - rewrite (nd_cur _ _ _ _ I) in Lj. injection Lj as <-. exact (nd_curplain _ _ _ _ I).
        - destruct (nd_closed _ _ _ _ I i ltac:(lia)) as [j' [Lj' [Pj' _]]]. rewrite Lj in Lj'. injection Lj' as <-. exact Pj'. }
      destruct (plain_entry _ _ _ Lj Pj) as [Hr He]. exists i, (fdata (inode (wfs (s_w x)) j)). auto. }
    apply generic_oracle.
    + intros n In_. destruct (Plain n In_) as [i [d [-> [_ Hr]]]]. rewrite Hr, rname_shape, is_prefix_under. reflexivity.
    + intros n In_. destruct (Plain n In_) as [i [d [-> [Es' _]]]]. rewrite Es'.
      destruct (rname_filters_d (woff (s_w x)) c sel i G Hsel) as (-> & -> & -> & ->).
      rewrite (rname_selected_d c crit KNever sel i d Hrot G), !orb_false_r. auto.
  - destruct R as [Es [Q [Hn _]]]. exact (query_fresh c _ _ _ x sel Hrot Es Q Hn).
Qed.

Theorem numbersdirect_listing_exact c crit t0 off ops sel :
  numdcfg c crit -> not_gz c -> Forall basic_op ops -> custom_ok_d sel ->
  let x := fst (run (sys0 t0 off) (OStart c :: ops)) in
  exists l, step x (OQuery sel) = (x, ObsList 0%N l)
            /\ oracle_listing sel c (snap_of x) l = true
            /\ sort_names l = expected_listing sel c (snap_of x).
Proof.
  intros Hcfg G Hb Hsel x. unfold x. clear x. cbn [run]. destruct (step (sys0 t0 off) (OStart c)) as [x0 ob0] eqn:E0.
  pose proof (start_rel_d c crit t0 off) as R0. rewrite E0 in R0. cbn [fst] in R0.
  pose proof (run_rel_d c crit Hcfg ops x0 None R0 Hb) as R1. destruct (run x0 ops) as [x1 obs1]. cbn [fst snd] in *.
  destruct (query_reld c crit x1 _ sel Hcfg G Hsel R1) as [l [E O]]. exists l. split; [exact E|]. split; [exact O|].
  apply names_beq_eq. exact O.
Qed.
Print Assumptions numbersdirect_listing_exact.

Example numbersdirect_listing_instance :
  snd (step (fst (run (sys0 0 0) (OStart exd_c :: exd_ops))) (OQuery sel_all))
  = ObsList 0%N (List.map bs ["app_r00003.log"; "app_r00002.log"; "app_r00001.log"; "app_r00000.log"]%string)
  /\ custom_ok_d sel_all.
Proof. split; [vm_compute; reflexivity | exact I]. Qed.

(* ------------------------------------------------------------------ Numbers without cleanup, hypotheses of numbers_stream only *)
Lemma query_rel c crit x a sel :
  numcfg c crit -> not_gz c -> custom_ok sel -> Rel c crit x a ->
  exists l, step x (OQuery sel) = (x, ObsList 0%N l) /\ oracle_listing sel c (snap_of x) l = true.
Proof.
  intros Hcfg G Hsel R. rewrite (step_sync_rel c crit x a (OQuery sel) Hcfg R). cbn [sync_step].
  destruct Hcfg as (Hrot & Hts & _). destruct R as [_ [_ R]]. rewrite snap_of_list. destruct a as [[closed cur]|].
  - destruct R as [wr [roll [Es [I _]]]]. rewrite Es. cbn [st_of f_poisoned]. unfold query.
    cbn [st_of f_cfg f_inner mk_rs rs_naming ns_filter]. unfold with_listing.
    rewrite (tick_quiet _ (ni_quiet _ _ _ _ I)), (fixed_of_fixed0 c _ Hts), existing_rot_filters. cbv zeta.
    fold (st_of c (length closed) roll wr). cbv beta iota. rewrite (sys_eta x _ Es).
    eexists. split; [reflexivity|].
    set (f := wfs (s_w x)) in *.
    assert (Cases : forall n, In n (dir_names f) ->
              is_reg_file f n = true /\ exists d, snap_entry f n = (n, 0%N, d) /\ (n = cname c \/ exists i, n = rname c i)).
    { intros n In_. apply dir_names_lookup in In_. destruct In_ as [j Lj].
      assert (Pj : plain (inode f j)).
      { destruct (ni_only _ _ _ _ I n j Lj) as [->|[i [Hi ->]]].
        - unfold f in Lj. rewrite (ni_cur _ _ _ _ I) in Lj. injection Lj as <-. exact (ni_curplain _ _ _ _ I).
        - destruct (ni_closed _ _ _ _ I i Hi) as [j' [Lj' [Pj' _]]]. unfold f in Lj. rewrite Lj in Lj'. injection Lj' as <-. exact Pj'. }
      destruct (plain_entry _ _ _ Lj Pj) as [Hr He]. split; [exact Hr|].
      exists (fdata (inode f j)). split; [exact He|].
      destruct (ni_only _ _ _ _ I n j Lj) as [->|[i [_ ->]]]; [left; reflexivity | right; eauto]. }
    apply generic_oracle.
    + intros n In_. destruct (Cases n In_) as [Hr [d [_ [->|[i ->]]]]]; rewrite Hr.
      * rewrite cname_shape, is_prefix_under. reflexivity.
      * rewrite rname_shape, is_prefix_under. reflexivity.
    + intros n In_. destruct (Cases n In_) as [_ [d [Es' [->|[i ->]]]]]; rewrite Es'.
      * destruct (cname_filters (woff (s_w x)) c sel) as (-> & -> & -> & ->).
        rewrite (cname_selected c crit KNever sel Hrot G d). cbn [orb].
        split; [discriminate|]. split; [discriminate|]. exact (cur_custom_spec sel).
      * destruct (rname_filters (woff (s_w x)) c sel G Hsel i) as (-> & -> & -> & ->).
        rewrite (rname_selected c crit KNever sel Hrot G i d), !orb_false_r. auto.
  - destruct R as [Es [Q [Hn _]]]. exact (query_fresh c _ _ _ x sel Hrot Es Q Hn).
Qed.

Theorem numbers_listing_exact_nocleanup c crit t0 off ops sel :
  numcfg c crit -> not_gz c -> Forall basic_op ops -> custom_ok sel ->
  let x := fst (run (sys0 t0 off) (OStart c :: ops)) in
  exists l, step x (OQuery sel) = (x, ObsList 0%N l)
            /\ oracle_listing sel c (snap_of x) l = true
            /\ sort_names l = expected_listing sel c (snap_of x).
Proof.
  intros Hcfg G Hb Hsel x. unfold x. clear x. cbn [run]. destruct (step (sys0 t0 off) (OStart c)) as [x0 ob0] eqn:E0.
  pose proof (start_rel c crit t0 off) as R0. rewrite E0 in R0. cbn [fst] in R0.
  pose proof (run_rel c crit Hcfg ops x0 None R0 Hb) as R1. destruct (run x0 ops) as [x1 obs1]. cbn [fst snd] in *.
  destruct (query_rel c crit x1 _ sel Hcfg G Hsel R1) as [l [E O]]. exists l. split; [exact E|]. split; [exact O|].
  apply names_beq_eq. exact O.
Qed.
Print Assumptions numbers_listing_exact_nocleanup.

(* ====================================================================================================================
   Timestamps naming: r<time stamp>[.restart-NNNN] and rCURRENT; the listing filters with the time-stamp parser (IFTs std_fmt),
   which accepts every infix that the writer forms (TsParse.parse_tsx). *)
Definition pt_plain (off : Z) (c : config) (sel : selector) (n : bytes) : bool :=
  sel_plain sel && qf off (fsfx (c_spec c)) (fixed0 c) (IFTs std_fmt) (fsfx (c_spec c)) n.
Definition pt_gz (off : Z) (c : config) (sel : selector) (n : bytes) : bool :=
  sel_gz sel && qf off (fsfx (c_spec c)) (fixed0 c) (IFTs std_fmt) (Some gz_sfx) n.

Lemma existing_rot_filters_ts off c f sel :
  existing_rot off (c_spec c) (fixed0 c) f (IFTs std_fmt) sel =
  let rel := related_files f (fsfx (c_spec c)) (fixed0 c) in
  Some (((filter (pt_plain off c sel) rel ++ filter (pt_gz off c sel) rel) ++ filter (p_cur off c sel) rel) ++ filter (p_custom off c sel) rel).
Proof.
  unfold existing_rot, pt_plain, pt_gz, p_cur, p_custom. cbv zeta.
  destruct (sel_custom sel) as [y|]; rewrite ?filter_files_total; [destruct (sel_rcur sel && beq y cur_infix)|];
    destruct (sel_plain sel), (sel_gz sel), (sel_rcur sel); cbn [andb app_opt]; cbv iota; rewrite ?filter_false; reflexivity.
Qed.

(* a custom current infix is no time stamp of a rotated file *)
Definition custom_ok_ts (sel : selector) : Prop :=
  match sel_custom sel with
  | None => True
  | Some x => forall e t, in_years e t -> x <> tsx e t
  end.

(* a plain name of the family does not look like an archive *)
Lemma kname_no_gz c e k : not_gz c -> in_years e (fst k) -> strip_suffix (dot :: gz_sfx) (kname c e k) = None.
Proof.
  intros G H. unfold kname, nm. apply as_name_gz_parts; [apply infix_of_nonempty; exact H|].
  unfold not_gz in G. destruct (fsfx (c_spec c)); [exact G|].
  destruct (infix_ends_digit e k H) as [X [D [-> [Hne Hd]]]]. apply sk_gz_digits; assumption.
Qed.
Lemma cname_no_gz c : not_gz c -> strip_suffix (dot :: gz_sfx) (cname c) = None.
Proof.
  intros G. unfold cname, nm. apply as_name_gz_parts; [apply cur_infix_nonempty|].
  unfold not_gz in G. destruct (fsfx (c_spec c)); [exact G | vm_compute; reflexivity].
Qed.

Lemma candidate_kname c e k : in_years e (fst k) ->
  infix_candidate (fsfx (c_spec c)) (fsfx (c_spec c)) (fixed0 c) (kname c e k) = Some (tsx e (fst k)).
Proof.
  intros H. apply family_is_candidate, family_plain_alt. exists (ktail (snd k)). split; [apply ktail_restart_part|].
  split; [apply tsx_nonempty; exact H|]. split; [exact (tsx_no_dot e _ H)|].
  rewrite kname_shape by exact H. fold (sfxs (c_spec c)). rewrite <- !app_assoc. reflexivity.
Qed.

Lemma cur_infix_no_stamp : parse_ts_local std_fmt cur_infix = None.
Proof. vm_compute. reflexivity. Qed.
Lemma cur_infix_not_canonical : canonical_ts std_fmt cur_infix = false.
Proof. unfold canonical_ts. rewrite cur_infix_no_stamp. reflexivity. Qed.

Section TsNamesListing.
Variables (off : Z) (c : config) (crit : criterion) (k : cleanup) (sel : selector) (e : Z).
Hypothesis Hrot : c_rot c = Some (crit, NTimestamps, k).
Hypothesis G : not_gz c.
Hypothesis Hsel : custom_ok_ts sel.

Lemma cname_filters_ts :
  pt_plain off c sel (cname c) = false /\ pt_gz off c sel (cname c) = false
  /\ p_cur off c sel (cname c) = sel_rcur sel
  /\ p_custom off c sel (cname c) = cur_custom sel.
Proof.
  unfold pt_plain, pt_gz, p_cur, p_custom, cur_custom, qf. rewrite candidate_cname. cbn [filter_infix]. rewrite cur_infix_not_canonical, andb_false_r.
  split; [reflexivity|]. split.
  - unfold infix_candidate. rewrite (cname_no_gz c G). apply andb_false_r.
  - rewrite beq_refl, andb_true_r. split; reflexivity.
Qed.

Lemma cname_selected_ts d :
  selected sel c (cname c, 0%N, d) = sel_rcur sel || match sel_custom sel with Some x => beq cur_infix x | None => false end.
Proof.
  unfold selected, classify_entry. rewrite Hrot. change (fixed_name_part (c_spec c) []) with (fixed0 c).
  rewrite (full_infix_cname c G). change (0 =? 1)%N with false. change (0 =? 0)%N with true. cbv iota.
  unfold cur_infix_of. rewrite Hrot. rewrite !beq_refl, andb_true_r.
  destruct (sel_custom sel) as [x|]; [rewrite (beq_sym x)|]; reflexivity.
Qed.

Lemma kname_filters_ts key : in_years e (fst key) ->
  pt_plain off c sel (kname c e key) = sel_plain sel /\ pt_gz off c sel (kname c e key) = false
  /\ p_cur off c sel (kname c e key) = false /\ p_custom off c sel (kname c e key) = false.
Proof.
  intros Y. unfold pt_plain, pt_gz, p_cur, p_custom, qf. rewrite (candidate_kname c e key Y). cbn [filter_infix].
  rewrite (canonical_tsx e _ Y), andb_true_r. split; [reflexivity|]. split.
  { unfold infix_candidate. rewrite (kname_no_gz c e key G Y). apply andb_false_r. }
  assert (Nc : beq (tsx e (fst key)) cur_infix = false).
  { apply beq_neq. intros E. apply (tsx_app_not_cur e (fst key) [] [] Y). rewrite !app_nil_r. exact E. }
  rewrite Nc, andb_false_r. split; [reflexivity|].
  unfold custom_ok_ts in Hsel. destruct (sel_custom sel) as [x|]; [|reflexivity].
  assert (E : beq (tsx e (fst key)) x = false) by (apply beq_neq; intros E; exact (Hsel e _ Y (eq_sym E))).
  rewrite E. destruct (sel_rcur sel && beq x cur_infix); reflexivity.
Qed.

Lemma kname_selected_ts key d : in_years e (fst key) -> selected sel c (kname c e key, 0%N, d) = sel_plain sel.
Proof.
  intros Y. unfold selected, classify_entry. rewrite Hrot. change (fixed_name_part (c_spec c) []) with (fixed0 c).
  rewrite (full_infix_kname c e key G Y). change (0 =? 1)%N with false. change (0 =? 0)%N with true. cbv iota.
  unfold cur_infix_of. rewrite Hrot. rewrite (beq_neq _ _ (infix_of_not_cur e key Y)), (valid_ts_infix None e key Y). reflexivity.
Qed.
End TsNamesListing.

Lemma query_relt c crit e lo hi n x a sel :
  tscfg c crit -> not_gz c -> custom_ok_ts sel -> years_ok e lo hi -> (wnow (s_w x) <= hi)%Z -> RelT c e lo n x a ->
  exists l, step x (OQuery sel) = (x, ObsList 0%N l) /\ oracle_listing sel c (snap_of x) l = true.
Proof.
  intros Hcfg G Hsel Y Hhi R. rewrite (step_sync_rel_ts c crit e lo n x a (OQuery sel) Hcfg R). cbn [sync_step].
  destruct Hcfg as (Hrot & Hts & _). destruct R as [_ [_ R]]. rewrite snap_of_list. destruct a as [[closed cur]|].
  - destruct R as [keys [wr [roll [ts [Es [I _]]]]]]. rewrite Es. cbn [st_ts f_poisoned]. unfold query.
    cbn [st_ts f_cfg f_inner mk_rs rs_naming ns_filter]. unfold with_listing.
    rewrite (tick_quiet _ (ti_quiet _ _ _ _ _ _ _ _ I)), (fixed_of_fixed0 c _ Hts), existing_rot_filters_ts. cbv zeta.
    fold (st_ts c ts roll wr). cbv beta iota. rewrite (sys_eta x _ Es).
    eexists. split; [reflexivity|].
    set (f := wfs (s_w x)) in *.
    assert (Yk : forall i, i < length closed -> in_years e (fst (nth i keys kd))).
    { intros i Hi. apply (years_in e lo hi _ Y).
      pose proof (ti_range _ _ _ _ _ _ _ _ I (nth i keys kd)) as Rg. pose proof (ti_ts _ _ _ _ _ _ _ _ I) as Rt.
      pose proof (ti_len _ _ _ _ _ _ _ _ I) as Hl.
      assert (Ik : In (nth i keys kd) keys) by (apply nth_In; lia). specialize (Rg Ik). lia. }
    assert (Cases : forall m, In m (dir_names f) ->
              is_reg_file f m = true /\ exists d, snap_entry f m = (m, 0%N, d)
                /\ (m = cname c \/ exists key, in_years e (fst key) /\ m = kname c e key)).
    { intros m In_. apply dir_names_lookup in In_. destruct In_ as [j Lj].
      assert (Pj : plain (inode f j)).
      { destruct (ti_only _ _ _ _ _ _ _ _ I m j Lj) as [->|[i [Hi ->]]].
        - unfold f in Lj. rewrite (ti_cur _ _ _ _ _ _ _ _ I) in Lj. injection Lj as <-. exact (ti_curplain _ _ _ _ _ _ _ _ I).
        - destruct (ti_closed _ _ _ _ _ _ _ _ I i Hi) as [j' [Lj' [Pj' _]]]. unfold f in Lj. rewrite Lj in Lj'. injection Lj' as <-. exact Pj'. }
      destruct (plain_entry _ _ _ Lj Pj) as [Hr He]. split; [exact Hr|].
      exists (fdata (inode f j)). split; [exact He|].
      destruct (ti_only _ _ _ _ _ _ _ _ I m j Lj) as [->|[i [Hi ->]]]; [left; reflexivity | right; eauto]. }
    apply generic_oracle.
    + intros m In_. destruct (Cases m In_) as [Hr [d [_ [->|[key [Yi ->]]]]]]; rewrite Hr.
      * rewrite cname_shape, is_prefix_under. reflexivity.
      * rewrite (kname_shape c e key Yi), is_prefix_under. reflexivity.
    + intros m In_. destruct (Cases m In_) as [_ [d [Es' [->|[key [Yi ->]]]]]]; rewrite Es'.
      * destruct (cname_filters_ts (woff (s_w x)) c sel G) as (-> & -> & -> & ->).
        rewrite (cname_selected_ts c crit KNever sel Hrot G d). cbn [orb].
        split; [discriminate|]. split; [discriminate|]. exact (cur_custom_spec sel).
      * destruct (kname_filters_ts (woff (s_w x)) c sel e G Hsel key Yi) as (-> & -> & -> & ->).
        rewrite (kname_selected_ts c crit KNever sel e Hrot G key d Yi), !orb_false_r. auto.
  - destruct R as [Es [Q [Hn _]]]. exact (query_fresh c _ _ _ x sel Hrot Es Q Hn).
Qed.

Theorem timestamps_listing_exact c crit t0 off ops sel :
  tscfg c crit -> tag_ok c -> not_gz c -> Forall basic_op ops -> Forall tick_ok ops -> custom_ok_ts sel ->
  (0 <= t0 + ts_e c off)%Z -> (t0 + elapsed ops + ts_e c off < sec_max)%Z -> (N.of_nat (length ops) <= usize_max)%N ->
  let x := fst (run (sys0 t0 off) (OStart c :: ops)) in
  exists l, step x (OQuery sel) = (x, ObsList 0%N l)
            /\ oracle_listing sel c (snap_of x) l = true
            /\ sort_names l = expected_listing sel c (snap_of x).
Proof.
  intros Hcfg T G Hb Htk Hsel Hlo Hhi Hmax x. unfold x. clear x. cbn [run].
  destruct (step (sys0 t0 off) (OStart c)) as [x0 ob0] eqn:E0.
  pose proof (start_rel_ts c t0 off) as R0. rewrite E0 in R0. cbn [fst] in R0.
  assert (W0 : wnow (s_w x0) = t0) by (cbn in E0; injection E0 as <- _; reflexivity).
  assert (Y : years_ok (ts_e c off) t0 (t0 + elapsed ops)) by (split; assumption).
  pose proof (run_rel_ts c crit _ _ _ Hcfg T Y ops x0 None 0 R0 Hb Htk ltac:(lia) ltac:(cbn [Nat.add]; exact Hmax)) as [R1 W1].
  destruct (run x0 ops) as [x1 obs1]. cbn [fst snd] in *.
  destruct (query_relt c crit _ _ _ _ x1 _ sel Hcfg G Hsel Y ltac:(lia) R1) as [l [E O]]. exists l. split; [exact E|]. split; [exact O|].
  apply names_beq_eq. exact O.
Qed.
Print Assumptions timestamps_listing_exact.

Example timestamps_listing_instance :
  snd (step (fst (run (sys0 0 0) (OStart ext_c :: ext_ops))) (OQuery sel_all))
  = ObsList 0%N (List.map bs ["app_r1970-01-01_00-00-01.log"; "app_r1970-01-01_00-00-00.restart-0002.log";
                              "app_r1970-01-01_00-00-00.restart-0001.log"; "app_r1970-01-01_00-00-00.restart-0000.log";
                              "app_r1970-01-01_00-00-00.log"; "app_rCURRENT.log"]%string)
  /\ custom_ok_ts sel_all.
Proof. split; [vm_compute; reflexivity | exact I]. Qed.
