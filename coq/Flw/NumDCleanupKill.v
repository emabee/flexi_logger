(* NumbersDirect naming WITH a cleanup strategy (KeepLogFiles, KeepCompressedFiles, or both), cleanup in the logging
   thread, direct mode, a process that is killed at an arbitrary effect: the creation of the next numbered file, a write,
   and inside the cleanup: remove_file and the four effects of compress_file (create archive, copy, finish, remove original).
   Theorem numbersdirect_cleanup_kill_keeps_acked: the directory left behind, read as the reader does (kill_view of
   NumCleanupKillDir.v with no rCURRENT: files by number, archives decompressed, an archive next to its original ignored),
   holds a tail of the acknowledged records that is at least as long as the limits allow; the newest numbered file - the
   one that was being written - is a plain file, never an archive.
   `all` lists the contents of ALL numbered files ever created, the newest (the file being written) last; (n, m) = klimd k are
   the effective limits: n >= 1 plain files INCLUDING the file being written, m archives (NumDCleanupStep.v). *)
Require Import FL.Base.Bytes FL.Base.BytesFacts FL.Base.PathName FL.Fs.Fs FL.Fs.FsFacts FL.Time.TsFormat
  FL.Names.FileSpec FL.Names.SortFacts FL.Names.FamilyFacts FL.Flw.Model FL.Flw.ModelFacts FL.Flw.NumFs
  FL.Flw.NumInv FL.Flw.Run FL.Flw.NumRun FL.Flw.NumListing FL.Flw.NumTheorems FL.Flw.CleanupFacts
  FL.Flw.NumCleanupNames FL.Flw.NumCleanupStep FL.Flw.NumCleanupRun FL.Flw.NumRestart FL.Flw.KillFacts FL.Flw.NumKill
  FL.Flw.NumKillRestart FL.Flw.NumDInv FL.Flw.NumDRun
  FL.Flw.NumCleanupKillDir FL.Flw.NumCleanupKillStep FL.Flw.NumDCleanupStep FL.Flw.NumDCleanupRun FL.Flw.NumDCleanupKillStep.
From Coq Require Import ZifyN ZifyNat ZifyBool.
Open Scope nat_scope.

(* ------------------------------------------------------------------ the directory of a killed process *)
(* a well-formed file system that holds the numbered files in one of the shapes of xdir (no rCURRENT), not cleaned beyond
   the effective limits (n plain files, the newest included; m archives) *)
Definition XDD (c : config) (n m : nat) (f : fs) (all : list bytes) : Prop :=
  exists lo mid red, fs_wf f /\ nodup_names f /\ xdir c (file_of f) all None lo mid red
    /\ lo <= length all - (n + m) /\ mid <= length all - n.

Definition DeadKD (c : config) (n m : nat) (w : world) (all : list bytes) : Prop := dead w /\ XDD c n m (wfs w) all.

Lemma kstd_xdd c n m f0 f all lo mid red : kstd c f0 f all lo mid red -> lo <= length all - (n + m) -> mid <= length all - n ->
  XDD c n m f all.
Proof. intros [[W Nd X _] _] U1 U2. exists lo, mid, red. auto. Qed.

Lemma numdkinv_kstd c q wr closed lo mid : NumDKInv c q wr closed lo mid -> wpend wr = [] ->
  kstd c (wfs q) (wfs q) (closed ++ [cur_view q wr]) lo mid None.
Proof.
  intros [Q W Hc Hcp Hmid KD Hnc Hwr Hcap] P.
  assert (Ecv : cur_view q wr = content (wfs q) (wino wr)) by (unfold cur_view; rewrite P, app_nil_r; reflexivity).
  rewrite Ecv. split; [|apply same_at_refl]. constructor.
  - exact W.
  - exact (kd_nodup _ _ _ _ _ KD).
  - apply kdir_xdir; [exact KD | exact Hnc].
  - apply same_at_refl.
Qed.

Lemma kstd_numdkinv c q f0 f' wr closed lo mid cu :
  quiet q -> kstd c f0 f' (closed ++ [cu]) lo mid None -> mid <= length closed ->
  lookup f0 (rname c (length closed)) = Some (wino wr) -> wr_ok wr -> wcap wr = c_cap c -> wpend wr = [] ->
  NumDKInv c (set_fs q f') wr closed lo mid /\ cur_view (set_fs q f') wr = cu.
Proof.
  intros Q [[W Nd X Sc] SL] Hmid Lc Hok Hcap P.
  rewrite len_snoc in SL. replace (S (length closed) - 1) with (length closed) in SL by lia.
  destruct (same_at_content _ _ _ _ SL Lc) as [Lc' Ic'].
  destruct (xd_plain _ _ _ _ _ _ _ X (length closed)) as (fl & Ff & G & D & C); [rewrite len_snoc; lia|].
  rewrite app_nth2, Nat.sub_diag in C by lia. cbn [nth] in C.
  apply file_of_some in Ff. destruct Ff as (j & Lj & ->). rewrite Lc' in Lj. injection Lj as <-.
  assert (Ec : content f' (wino wr) = cu) by exact C.
  split.
  - constructor.
    + apply quiet_set_fs. exact Q.
    + exact W.
    + exact Lc'.
    + split; assumption.
    + exact Hmid.
    + rewrite wfs_set_fs, Ec. eapply xdir_kdir; eassumption.
    + rewrite wfs_set_fs. apply file_of_none. exact (xd_cur _ _ _ _ _ _ _ X).
    + exact Hok.
    + exact Hcap.
  - unfold cur_view. rewrite wfs_set_fs, P, app_nil_r. exact Ec.
Qed.

Lemma cleanup_budget_noop_d c k n m q all lo mid j :
  fts (c_spec c) = false -> klimd k = Some (n, m) -> sfx_ok (c_spec c) -> quiet q ->
  kdir c (wfs q) all lo mid -> length all <= n ->
  cleanup_impl c (kw q j) k IFNum (Some (rname c (length all - 1))) = (Ok tt, kw q j).
Proof.
  intros Hts Hk Hsfx Q KD Hn.
  pose proof (kd_le _ _ _ _ _ KD) as Hle.
  rewrite (cleanup_impl_kw_unfold c q j k IFNum n m (Some _) Hk Q), (fixed_of_fixed0 c _ Hts).
  rewrite (list_log_gz_numbers c (wfs q) (woff q) _ _ _ Hsfx (kdir_shape _ _ _ _ _ KD)).
  rewrite (listing_no_redundant c _ _ _ Hsfx Hle). cbn [remove_redundant negb].
  rewrite cleanup_loop_cur_kept.
  - rewrite cleanup_loop_all_keep; [reflexivity|].
    intros k0 x Hk0. apply listing_nth_inv in Hk0; [|exact Hle]. apply act_keep_below; lia.
  - intros k0 Hk0. apply listing_nth_inv in Hk0; [|exact Hle]. apply act_keep_below; lia.
Qed.

Section Direct.
Variables (c : config) (crit : criterion) (k : cleanup) (n m : nat).
Hypothesis Hcfg : numdkcfg c crit k.
Hypothesis Hk : klimd k = Some (n, m).
Hypothesis Hcap : c_cap c = None.
Hypothesis Hsfx : sfx_ok (c_spec c).

Lemma d_lo_eq L : d_lo k L = S L - (n + m).
Proof. unfold d_lo. rewrite Hk. reflexivity. Qed.
Lemma d_mid_eq L : d_mid k L = S L - n.
Proof. unfold d_mid. rewrite Hk. reflexivity. Qed.
Lemma n_pos : 1 <= n.
Proof. exact (klimd_pos _ _ _ Hk). Qed.
Lemma dside_of L : dside c k L.
Proof. unfold dside. rewrite Hk. exact Hsfx. Qed.

Lemma direct_wr_dk q wr cl lo mid : NumDKInv c q wr cl lo mid -> wpend wr = [] /\ wcap wr = None.
Proof.
  intros I. pose proof (dk_wr _ _ _ _ _ _ I) as Hw. pose proof (dk_cap _ _ _ _ _ _ I) as Hc. rewrite Hcap in Hc.
  unfold wr_ok in Hw. rewrite Hc in Hw. split; assumption.
Qed.

Lemma numdkinv_xdd q wr closed : NumDKInv c q wr closed (d_lo k (length closed)) (d_mid k (length closed)) -> wpend wr = [] ->
  XDD c n m (wfs q) (closed ++ [cur_view q wr]).
Proof.
  intros I P. eapply kstd_xdd; [apply (numdkinv_kstd c q wr closed _ _ I P) | |]; rewrite len_snoc.
  - rewrite d_lo_eq. lia.
  - rewrite d_mid_eq. lia.
Qed.

(* ---- one rotation with a budget: create the next file, cleanup ---- *)
Lemma mount_next_kdk q wr closed roll force j :
  NumDKInv c q wr closed (d_lo k (length closed)) (d_mid k (length closed)) ->
  force || rotation_necessary q roll = true ->
  exists r w' st',
    mount_next c (kw q (S j)) (Active (Some (mk_rsk k (NSNumD (N.of_nat (length closed))) roll)) wr (rname c (length closed))) force = (r, w', st') /\
    ( (exists q' j' wr' roll', w' = kw q' (S j') /\ r = Ok tt
         /\ st' = Active (Some (mk_rsk k (NSNumD (N.of_nat (S (length closed)))) roll')) wr' (rname c (S (length closed)))
         /\ NumDKInv c q' wr' (closed ++ [cur_view q wr]) (d_lo k (S (length closed))) (d_mid k (S (length closed)))
         /\ cur_view q' wr' = [] /\ roll_size_ok roll' 0 /\ same_env q q'
         /\ (forall m0 cur, roll = RSize m0 cur -> exists cur', roll' = RSize m0 cur'))
      \/ (exists qd all, w' = kw qd 0 /\ quiet qd /\ XDD c n m (wfs qd) all
            /\ concat all = concat closed ++ cur_view q wr /\ length all <= S (S (length closed))) ).
Proof.
  intros I Hnec. pose proof Hcfg as (Hrot & Hts & Hlink & Has & Hbg). pose proof n_pos as Hn1.
  pose proof I as [Q W Hc Hcp Hmid KD Hnc Hwr Hcapw]. destruct (direct_wr_dk q wr closed _ _ I) as [Hp Hc0].
  destruct (kdir_rotate_d c (wfs q) closed _ _ (wino wr) (wpend wr) (wnow q) W KD Hmid Hc Hnc) as (Ht & R).
  cbn zeta in R. destruct R as (W3 & L3t & Inew & Hnc3 & KD3). rewrite Hp, append_ino_nil_id in W3, L3t, Inew, Hnc3, KD3.
  rewrite app_nil_r in KD3.
  assert (Ecv : cur_view q wr = content (wfs q) (wino wr)) by (unfold cur_view; rewrite Hp, app_nil_r; reflexivity).
  pose proof Ht as Ht'. rewrite <- rname_S in Ht'.
  rewrite (mount_next_numd_kw c q (mk_rsk k (NSNumD (N.of_nat (length closed))) roll) wr (rname c (length closed)) force _ (S j)
             Hts Hlink Q Hp eq_refl Hnec Ht').
  cbn [mk_rsk rs_bg rs_cleanup rs_roll cleanup_or_queue]. cbv zeta. rewrite rname_S.
  set (f2 := fst (create_file (wfs q) (rname c (S (length closed))) 0%N (wnow q))) in *.
  set (new := snd (create_file (wfs q) (rname c (S (length closed))) 0%N (wnow q))) in *.
  destruct j as [|j']; cbn [eff_fs].
  - (* killed at the creation of the next file *)
    destruct (cleanup_impl_dead c (kw q 0) k IFNum (Some (rname c (S (length closed)))) (dead_kw q Q)) as [rc Ec].
    rewrite Ec. eexists _, _, _. split; [reflexivity|]. right.
    exists q, (closed ++ [cur_view q wr]). split; [reflexivity|]. split; [exact Q|].
    split; [apply (numdkinv_xdd q wr closed I Hp)|].
    split; [rewrite concat_app; cbn [concat]; rewrite app_nil_r; reflexivity | rewrite len_snoc; apply Nat.le_succ_diag_r].
  - (* the creation is done: the cleanup *)
    set (q2 := set_fs q f2).
    assert (Q2 : quiet q2) by exact Q.
    set (wr' := {| wino := new; wpend := []; wcap := c_cap c |}).
    rewrite Ecv. set (closed' := closed ++ [content (wfs q) (wino wr)]) in *.
    assert (EL : length closed' = S (length closed)) by (unfold closed'; apply len_snoc).
    assert (I3 : NumDKInv c q2 wr' closed' (d_lo k (length closed)) (d_mid k (length closed))).
    { constructor.
      - exact Q2.
      - exact W3.
      - rewrite EL. exact L3t.
      - cbn [wr' wino]. unfold q2. rewrite wfs_set_fs, Inew. split; reflexivity.
      - rewrite EL. apply Nat.le_le_succ_r. exact Hmid.
      - exact KD3.
      - exact Hnc3.
      - apply wr_ok_nil.
      - reflexivity. }
    pose proof (numdkinv_kstd c q2 wr' closed' _ _ I3 eq_refl) as K2.
    assert (V2 : cur_view q2 wr' = []).
    { unfold cur_view, q2. rewrite wfs_set_fs. cbn [wr' wino wpend]. unfold content. rewrite Inew. reflexivity. }
    rewrite V2 in K2. set (all' := closed' ++ [[]]) in *.
    assert (EL' : length all' = S (S (length closed))) by (unfold all'; rewrite len_snoc, EL; reflexivity).
    assert (K2' : kstd c (wfs q2) (wfs q2) all' (length all' - 1 - (n + m)) (length all' - 1 - n) None).
    { rewrite EL'. rewrite d_lo_eq, d_mid_eq in K2. cbn [Nat.sub]. rewrite ?Nat.sub_0_r. exact K2. }
    pose proof (cleanup_budget_d c k n m q2 all' j' Hts Hk Hsfx Q2 K2') as CB.
    rewrite EL' in CB. cbn [Nat.sub] in CB. rewrite ?Nat.sub_0_r in CB.
    destruct CB as (rc & w4 & Ec & [(f' & j2 & -> & -> & K4) | (f' & lo & mid & red & -> & K4 & U4 & U5)]); rewrite Ec.
    + eexists _, _, _. split; [reflexivity|]. left.
      exists (set_fs q2 f'), j2, wr', (reset_size_and_date q2 roll (rname c (S (length closed)))).
      split; [reflexivity|]. split; [reflexivity|].
      split. { rewrite Nat2N.inj_succ, <- N.add_1_r. reflexivity. }
      assert (Lc2 : lookup (wfs q2) (rname c (length closed')) = Some (wino wr')) by (rewrite EL; exact L3t).
      assert (Hm4 : S (S (length closed)) - n <= length closed') by (rewrite EL; clear - Hn1; lia).
      destruct (kstd_numdkinv c q2 (wfs q2) f' wr' closed' _ _ [] Q2 K4 Hm4 Lc2 (wr_ok_nil _ _) eq_refl eq_refl) as [I4 V4].
      split. { rewrite d_lo_eq, d_mid_eq. exact I4. }
      split; [exact V4|].
      split. { destruct roll; cbn; auto. }
      split. { apply (same_env_set_fs q). exact Q. }
      intros m0 cur ->. cbn. eauto.
    + eexists _, _, _. split; [reflexivity|]. right.
      exists (set_fs q2 f'), all'. split; [reflexivity|]. split; [exact Q|].
      split; [apply (kstd_xdd c n m _ _ _ _ _ _ K4); rewrite EL'; assumption|].
      split. { unfold all', closed'. rewrite !concat_app. cbn [concat]. rewrite !app_nil_r. reflexivity. }
      rewrite EL'. apply Nat.le_refl.
Qed.

(* ---- one write(2) of the unbuffered writer with a budget ---- *)
Lemma w_write_kdk q wr cl lo mid b j :
  NumDKInv c q wr cl lo mid ->
  exists w', w_write (kw q (S j)) wr b = (true, w', wr) /\
   ( (exists q' j', w' = kw q' (S j') /\ NumDKInv c q' wr cl lo mid /\ cur_view q' wr = cur_view q wr ++ b /\ same_env q q')
     \/ w' = kw q 0 ).
Proof.
  intros I. destruct (direct_wr_dk q wr cl lo mid I) as [Hp Hc0]. pose proof (dk_quiet _ _ _ _ _ _ I) as Q.
  apply (w_write_direct_kw (fun q' => NumDKInv c q' wr cl lo mid) q wr b j Q Hp Hc0 I).
  intros x q' F S. exact (numdkinv_append c q q' wr wr cl lo mid x I F S eq_refl eq_refl (dk_wr _ _ _ _ _ _ I)).
Qed.

(* ---- a write on an active writer with a budget: every kill point ---- *)
Lemma write_active_kdk q wr cl roll b j :
  NumDKInv c q wr cl (d_lo k (length cl)) (d_mid k (length cl)) -> roll_size_ok roll (length (cur_view q wr)) ->
  exists r w' s' rot', write_buffer (st_ofdk c k (length cl) roll wr) (kw q (S j)) b = (r, w', s', rot') /\
  ( (exists q' j' wr' roll' cl', w' = kw q' (S j') /\ r = Ok tt /\ s' = st_ofdk c k (length cl') roll' wr'
       /\ rot' = rotation_necessary q roll
       /\ NumDKInv c q' wr' cl' (d_lo k (length cl')) (d_mid k (length cl')) /\ roll_size_ok roll' (length (cur_view q' wr')) /\ same_env q q'
       /\ (cl', cur_view q' wr') = (if rotation_necessary q roll then (cl ++ [cur_view q wr], b) else (cl, cur_view q wr ++ b))
       /\ (forall m0 cur, roll = RSize m0 cur -> exists cur', roll' = RSize m0 cur'))
    \/ (exists qd all, w' = kw qd 0 /\ quiet qd /\ XDD c n m (wfs qd) all
          /\ concat all = concat cl ++ cur_view q wr /\ length all <= S (S (length cl))) ).
Proof.
  intros I Hsz. destruct (direct_wr_dk q wr cl _ _ I) as [Hp Hc0]. pose proof (dk_quiet _ _ _ _ _ _ I) as Q.
  rewrite write_buffer_eq. unfold wb_active. cbn [st_ofdk f_cfg f_inner mk_rsk rs_roll]. rewrite rot_nec_kw.
  destruct (rotation_necessary q roll) eqn:Er.
  - (* the write rotates first *)
    destruct (mount_next_kdk q wr cl roll false j I) as (r1 & w1 & st1 & E1 & M); [cbn [orb]; exact Er|].
    rewrite E1.
    destruct M as [(q1 & j1 & wr1 & roll1 & -> & -> & -> & I1 & V1 & Z1 & S1 & R1) | (qd & all & -> & Qd & Xd & Fl & Len)].
    + unfold wb_tail.
      assert (EL : length (cl ++ [cur_view q wr]) = S (length cl)) by apply len_snoc.
      rewrite <- EL in I1.
      destruct (w_write_kdk q1 wr1 (cl ++ [cur_view q wr]) _ _ b j1 I1) as [w2 [Ew Out]]. rewrite Ew.
      eexists _, w2, _, true. split; [reflexivity|].
      destruct Out as [[q2 [j2 [-> [I2 [V2 S2]]]]] | ->].
      * left. exists q2, j2, wr1, (increase_size roll1 (N.of_nat (length b))), (cl ++ [cur_view q wr]).
        split; [reflexivity|]. split; [reflexivity|]. split; [unfold st_ofdk; rewrite EL; reflexivity|]. split; [reflexivity|].
        split; [exact I2|]. rewrite V1 in V2. cbn [app] in V2.
        split. { rewrite V2. apply (roll_size_increase roll1 0 (length b)). exact Z1. }
        split; [eapply same_env_trans; eassumption|].
        split; [rewrite V2; reflexivity|].
        intros m0 cur Hr. destruct (R1 m0 cur Hr) as [cur' ->]. cbn. eauto.
      * right. destruct (direct_wr_dk q1 wr1 _ _ _ I1) as [Hp1 _].
        exists q1, ((cl ++ [cur_view q wr]) ++ [cur_view q1 wr1]).
        split; [reflexivity|]. split; [apply I1|]. split; [exact (numdkinv_xdd q1 wr1 _ I1 Hp1)|].
        split.
        -- rewrite V1, !concat_app. cbn [concat]. rewrite !app_nil_r. reflexivity.
        -- rewrite !len_snoc. lia.
    + destruct (wb_tail_dead (st_ofdk c k (length cl) roll wr) b r1 (kw qd 0) st1 true (dead_kw qd Qd)) as [r [s' ET]].
      exists r, (kw qd 0), s', true. split; [exact ET|]. right. exists qd, all. auto.
  - (* no rotation *)
    rewrite mount_next_idle by (rewrite rot_nec_kw; exact Er). unfold wb_tail.
    destruct (w_write_kdk q wr cl _ _ b j I) as [w2 [Ew Out]]. rewrite Ew.
    eexists _, w2, _, false. split; [reflexivity|].
    destruct Out as [[q2 [j2 [-> [I2 [V2 S2]]]]] | ->].
    + left. exists q2, j2, wr, (increase_size roll (N.of_nat (length b))), cl.
      split; [reflexivity|]. split; [reflexivity|]. split; [reflexivity|]. split; [reflexivity|].
      split; [exact I2|].
      split. { rewrite V2, app_length. apply roll_size_increase. exact Hsz. }
      split; [exact S2|]. split; [rewrite V2; reflexivity|].
      intros m0 cur ->. cbn. eauto.
    + right. exists q, (cl ++ [cur_view q wr]). split; [reflexivity|]. split; [exact Q|].
      split; [exact (numdkinv_xdd q wr cl I Hp)|].
      split; [rewrite concat_app; cbn [concat]; rewrite app_nil_r; reflexivity | rewrite len_snoc; lia].
Qed.

(* ---- the first write: initialisation in the empty directory with a budget (one effect: the creation of r00000;
        the initial cleanup finds one file and does nothing) ---- *)
Lemma initialize_empty_kdk q j :
  quiet q -> names (wfs q) = [] -> inodes (wfs q) = [] ->
  match j with
  | 0 => exists r a, initialize c (kw q 1) = (r, set_acts (kw q 0) a)
  | S j' => exists q' wr roll,
      initialize c (kw q (S (S j'))) = (Ok (Active (Some (mk_rsk k (NSNumD 0) roll)) wr (rname c 0)), kw q' (S j'))
      /\ NumDKInv c q' wr [] 0 0 /\ cur_view q' wr = [] /\ roll_size_ok roll 0 /\ same_env q q'
      /\ (forall m0, crit = CSize m0 -> roll = RSize m0 0)
  end.
Proof.
  intros Q Hn Hi. pose proof Hcfg as (Hrot & Hts & Hlink & Has & Hbg).
  assert (Lc : lookup (wfs q) (name_of c q (Some (number_infix 0))) = None) by (apply lookup_empty; exact Hn).
  pose proof (fun b => open_log_file_fresh_kw c q b (Some (number_infix 0)) Q Hlink Lc) as Eo.
  rewrite (name_of_nm c q _ Hts), Hi in Eo. change (nm c (number_infix 0)) with (rname c 0) in Eo.
  destruct j as [|j'].
  - exact (initialize_dies c _ _ _ _ _ _ _ _ _ Hrot (init_naming_empty_d_kw c q 1 Q Hn) (Eo 1) (dead_kw q Q)).
  - specialize (Eo (S (S j'))). cbn [eff_fs length] in Eo.
    set (q2 := set_fs q (fst (create_file (wfs q) (rname c 0) 0%N (wnow q)))) in *.
    destruct (numdinv_first c q2 (wfs q) (wnow q) Q Hn Hi eq_refl) as [ID [V2 Fo]].
    set (wr := {| wino := 0; wpend := []; wcap := c_cap c |}) in *.
    pose proof ID as [_ WD HcD HcpD _ HonD HwrD _]. cbn [length] in HcD, HonD.
    assert (C0 : content (wfs q2) (wino wr) = []).
    { unfold cur_view in V2. cbn [wr wpend] in V2. rewrite app_nil_r in V2. exact V2. }
    assert (I2 : NumDKInv c q2 wr [] 0 0).
    { constructor; cbn [length]; auto.
      - rewrite C0. constructor.
        + split; [apply Nat.le_refl | apply Nat.le_0_l].
        + unfold nodup_names, dir_names, q2. cbn [set_fs wfs create_file fst names]. rewrite Hn. cbn [map fst]. constructor; [intros [] | constructor].
        + cbn [length app]. intros i [_ Hi']. apply Nat.lt_1_r in Hi'. subst i. exists 0. split; [exact HcD|].
          split; [exact HcpD|]. exact C0.
        + intros i [_ Hi']. inversion Hi'.
        + intros x i Lj. destruct (HonD _ _ Lj) as (i0 & Hi' & ->). right. left. exists i0. cbn [length app]. split; [clear - Hi'; lia | reflexivity].
      - destruct (lookup (wfs q2) (cname c)) as [i|] eqn:E; [|reflexivity].
        destruct (HonD _ _ E) as (i0 & _ & X). symmetry in X. exfalso. exact (rname_not_cname _ _ X). }
    pose proof (cleanup_budget_noop_d c k n m q2 ([] ++ [content (wfs q2) (wino wr)]) 0 0 (S j') Hts Hk Hsfx Q (dk_dir _ _ _ _ _ _ I2) n_pos) as CN.
    cbn [app length Nat.sub] in CN.
    assert (Ecl : match k with KNever => (Ok tt, kw q2 (S j')) | _ => cleanup_impl c (kw q2 (S j')) k (ns_filter (NSNumD 0)) (if naming_writes_direct NNumbersDirect then Some (rname c 0) else None) end
                  = (Ok tt, kw q2 (S j'))) by (destruct k; [reflexivity|..]; exact CN).
    assert (Ebg : match k with KNever => false | _ => c_bg c end = false) by (destruct k; auto).
    pose proof (initialize_steps c _ _ _ _ _ _ _ _ _ _ _ _ _ Hrot (init_naming_empty_d_kw c q _ Q Hn) Eo
                  (roll_new_kw q2 (S j') crit (c_append c) _ _ Q Fo) Ecl) as Ei. rewrite Ebg in Ei.
    eexists q2, wr, _. split; [exact Ei|]. split; [exact I2|]. split; [exact V2|].
    cbn [fresh_file fdata fborn length]. split; [destruct (c_append c); apply (roll_of_size_ok crit 0)|].
    split; [apply same_env_set_fs; exact Q|]. intros m0 ->. destruct (c_append c); reflexivity.
Qed.

(* ------------------------------------------------------------------ the relation for a process with a budget *)
Definition KRelDK (x : sys) (a : aview) : Prop :=
  exists q j, s_w x = kw q (S j) /\ RelDK c crit k (with_w x q) a.

Lemma empty_xdd f : names f = [] -> XDD c n m f [].
Proof.
  intros Hn. destruct (empty_view c f Hn) as [W _]. exists 0, 0, None. split; [exact W|].
  split; [unfold nodup_names, dir_names; rewrite Hn; constructor|].
  split; [|cbn [length]; split; lia].
  assert (E : forall y, file_of f y = None) by (intros y; apply file_of_none; apply lookup_empty; exact Hn).
  constructor.
  - cbn [length]. lia.
  - cbn [length]. intros i Hi. lia.
  - intros i Hi. lia.
  - apply E.
  - exact I.
  - intros x fl Hx. rewrite E in Hx. discriminate.
Qed.

(* ---- a write, from either kind of state ---- *)
Lemma write_rel_kdk x a b q j :
  s_w x = kw q (S j) -> RelDK c crit k (with_w x q) a ->
  exists s r w' s' rot, s_flw x = Some s /\ f_poisoned s = false /\
    write_buffer s (s_w x) b = (r, w', s', rot) /\
    ( (r = Ok tt /\ KRelDK {| s_flw := Some s'; s_w := w'; s_tl := []; s_dead := s_dead x |} (a_step a (OWrite b) rot))
      \/ (exists all, DeadKD c n m w' all /\ concat all = flat a /\ length all <= S (S (apot a))) ).
Proof.
  intros Ew [Ht [Ha R]]. cbn [with_w s_tl s_w s_flw] in Ht, Ha, R. rewrite Ew. destruct a as [[cl cu]|].
  - destruct R as [wr [roll [Es [I [V [Z RS]]]]]]. rewrite <- V in Z.
    destruct (write_active_kdk q wr cl roll b j I Z) as [r [w' [s' [rot' [E Out]]]]].
    exists (st_ofdk c k (length cl) roll wr), r, w', s', rot'. split; [exact Es|]. split; [reflexivity|]. split; [exact E|].
    destruct Out as [[q' [j' [wr' [roll' [cl' [-> [-> [-> [-> [I' [Z' [S' [V' R']]]]]]]]]]]]] | [qd [all [-> [Qd [Xd [Fl Len]]]]]]].
    + left. split; [reflexivity|]. exists q', j'. split; [reflexivity|].
      split; [reflexivity|]. split; [cbn [with_w s_w]; exact (same_env_acts _ _ S' Ha)|].
      cbn [a_step]. rewrite V in V'.
      destruct (rotation_necessary q roll); injection V' as <- V''; (exists wr', roll'; cbn [with_w s_flw s_w];
        split; [reflexivity|]; split; [exact I'|]; split; [exact V''|]; split; [rewrite <- V''; exact Z'|];
        intros m0 Hm; destruct (RS m0 Hm) as [z ->]; destruct (R' m0 z eq_refl) as [z' ->]; eauto).
    + right. exists all. split; [split; [apply dead_kw; exact Qd | exact Xd]|].
      split; [rewrite Fl, V; reflexivity | exact Len].
  - destruct R as [Es [Q [Hn Hi]]].
    pose proof (initialize_empty_kdk q j Q Hn Hi) as IE. destruct j as [|j'].
    + destruct IE as [r0 [a0 Ei]].
      destruct (wb_initial_dead (new_flw c) (kw q 1) b r0 _ eq_refl Ei (dead_kw q Q)) as [r [w' [s' [rot [E F]]]]].
      exists (new_flw c), r, w', s', rot. split; [exact Es|]. split; [reflexivity|]. split; [exact E|].
      right. exists []. destruct F as [D F]. cbn [kw set_kill set_acts wfs] in F.
      split; [split; [exact D | apply empty_xdd; rewrite F; exact Hn]|]. split; [reflexivity | cbn; lia].
    + destruct IE as [q1 [wr [roll [Ei [I [V [Z [S1 RS]]]]]]]].
      assert (Z0 : roll_size_ok roll (length (cur_view q1 wr))) by (rewrite V; exact Z).
      assert (I0 : NumDKInv c q1 wr [] (d_lo k (length (@nil bytes))) (d_mid k (length (@nil bytes))))
        by (cbn [length]; rewrite d_lo_0, d_mid_0; exact I).
      destruct (write_active_kdk q1 wr [] roll b j' I0 Z0) as [r [w' [s' [rot' [E Out]]]]].
      exists (new_flw c), r, w', s', rot'. split; [exact Es|]. split; [reflexivity|].
      split. { rewrite (write_buffer_init c (kw q (S (S j'))) b _ _ _ (kw q1 (S j')) Ei). exact E. }
      destruct Out as [[q' [j2 [wr' [roll' [cl' [-> [-> [-> [-> [I' [Z' [S' [V' R']]]]]]]]]]]]] | [qd [all [-> [Qd [Xd [Fl Len]]]]]]].
      * left. split; [reflexivity|]. exists q', j2. split; [reflexivity|].
        split; [reflexivity|]. split; [cbn [with_w s_w]; exact (same_env_acts _ _ (same_env_trans _ _ _ S1 S') Ha)|].
        cbn [a_step]. rewrite V in V'. cbn [app] in V'.
        destruct (rotation_necessary q1 roll); injection V' as <- V''; (exists wr', roll'; cbn [with_w s_flw s_w];
          split; [reflexivity|]; split; [exact I'|]; split; [exact V''|]; split; [rewrite <- V''; exact Z'|]).
        -- intros m0 Hm. rewrite (RS m0 Hm) in R'. destruct (R' m0 0%N eq_refl) as [z' ->]; eauto.
        -- intros m0 Hm. rewrite (RS m0 Hm) in R'. destruct (R' m0 0%N eq_refl) as [z' ->]; eauto.
      * right. exists all. split; [split; [apply dead_kw; exact Qd | exact Xd]|].
        split; [rewrite Fl, V; reflexivity | exact Len].
Qed.

Lemma kreldk_flw x a : KRelDK x a -> exists s, s_flw x = Some s /\ f_cfg s = c.
Proof.
  intros [q [j [_ [_ [_ R]]]]]. cbn [with_w s_flw] in R.
  destruct a as [[cl cu]|]; [destruct R as [wr [roll [Es _]]] | destruct R as [Es _]]; rewrite Es; eexists; split; reflexivity.
Qed.

Lemma step_sync_kdk x a o : KRelDK x a -> step x o = sync_step x o.
Proof.
  intros K. destruct (kreldk_flw x a K) as [s [Es Ec]]. destruct Hcfg as (_ & Hts & _ & Ha & _).
  apply (step_sync_cfg x o s Es); rewrite Ec; assumption.
Qed.

(* ---- one basic operation of a process with a budget: it either completes (and is acknowledged), or the process dies
        in it, and then the directory holds a tail of what was acknowledged before ---- *)
Lemma kstep_dk x a o : KRelDK x a -> basic_op o ->
  let '(x', ob) := step x o in
  (alive (s_w x') = true /\ KRelDK x' (a_step a o (rot_of ob)))
  \/ (alive (s_w x') = false /\ exists all, DeadKD c n m (s_w x') all /\ concat all = flat a /\ length all <= S (S (apot a))).
Proof.
  intros K Hb. rewrite (step_sync_kdk x a o K). destruct K as [q [j [Ew R]]].
  destruct o; try contradiction; cbn [sync_step].
  - (* OWrite *)
    destruct (write_rel_kdk x a b q j Ew R) as [s [r [w' [s' [rot [Es [Hp [E Out]]]]]]]].
    rewrite Es, Hp. pose proof (proj1 R) as Ht. cbn [with_w s_tl] in Ht. rewrite Ht. cbn [app]. rewrite E. cbn [rot_of].
    destruct Out as [[-> K'] | [all [D [Fl Len]]]].
    + left. split; [|exact K']. destruct K' as [q' [j' [E' _]]]. cbn [s_w] in E' |- *. rewrite E'. reflexivity.
    + right. cbn [s_w].
      rewrite report_write_dead by apply D. split; [apply dead_not_alive; apply D|]. exists all. auto.
  - (* OPlain *)
    destruct (write_rel_kdk x a b q j Ew R) as [s [r [w' [s' [rot [Es [Hp [E Out]]]]]]]].
    rewrite Es, Hp, E. cbn [rot_of]. pose proof (proj1 R) as Ht. cbn [with_w s_tl] in Ht. rewrite Ht.
    destruct Out as [[-> K'] | [all [D [Fl Len]]]].
    + left. split; [|exact K']. destruct K' as [q' [j' [E' _]]]. cbn [s_w] in E' |- *. rewrite E'. reflexivity.
    + right. cbn [s_w]. split; [apply dead_not_alive; apply D|]. exists all. auto.
  - (* OFlush *)
    destruct R as [Ht [Ha R]]. cbn [with_w s_tl s_w s_flw] in Ht, Ha, R. destruct a as [[cl cu]|].
    + destruct R as [wr [roll [Es [I [V [Z RS]]]]]]. rewrite Es. cbn [st_ofdk f_poisoned].
      destruct (direct_wr_dk q wr cl _ _ I) as [Pw _].
      unfold flush_state, st_ofdk. cbn [f_inner]. rewrite w_flush_nop by exact Pw. rewrite (writer_eta wr Pw).
      cbn [rot_of a_step s_w]. left. split; [rewrite Ew; reflexivity|].
      exists q, j. split; [exact Ew|]. split; [exact Ht|]. split; [exact Ha|].
      exists wr, roll. cbn [with_w s_flw s_w]. split; [reflexivity|]. split; [exact I|]. split; [exact V|]. split; assumption.
    + destruct R as [Es R]. rewrite Es. cbn [new_flw f_poisoned flush_state f_inner rot_of a_step s_w].
      left. split; [rewrite Ew; reflexivity|]. exists q, j. split; [exact Ew|]. split; [exact Ht|]. split; [exact Ha|].
      split; [reflexivity | exact R].
  - (* OTrigger *)
    destruct R as [Ht [Ha R]]. cbn [with_w s_tl s_w s_flw] in Ht, Ha, R. destruct a as [[cl cu]|].
    + destruct R as [wr [roll [Es [I [V [Z RS]]]]]]. rewrite Es. cbn [st_ofdk f_poisoned f_cfg f_inner]. rewrite Ew.
      destruct (mount_next_kdk q wr cl roll true j I eq_refl) as (r1 & w1 & st1 & E1 & M). rewrite E1.
      destruct M as [(q1 & j1 & wr1 & roll1 & -> & -> & -> & I1 & V1 & Z1 & S1 & R1) | (qd & all & -> & Qd & Xd & Fl & Len)].
      * left. cbn [rot_of a_step code_of with_inner f_cfg f_poisoned s_w]. split; [reflexivity|].
        exists q1, j1. split; [reflexivity|]. split; [exact Ht|]. split; [cbn [with_w s_w]; exact (same_env_acts _ _ S1 Ha)|].
        rewrite V in *. exists wr1, roll1. cbn [with_w s_flw s_w].
        assert (EL : length (cl ++ [cu]) = S (length cl)) by apply len_snoc.
        split; [unfold st_ofdk; rewrite EL; reflexivity|]. split; [rewrite EL; exact I1|]. split; [exact V1|]. split; [exact Z1|].
        intros m0 Hm. destruct (RS m0 Hm) as [z ->]. destruct (R1 m0 z eq_refl) as [z' ->]. eauto.
      * right. cbn [s_w fst]. destruct r1; cbn [s_w]; (split; [reflexivity|]); exists all;
          (split; [split; [apply dead_kw; exact Qd | exact Xd]|]; split; [rewrite Fl, V; reflexivity | exact Len]).
    + destruct R as [Es R]. rewrite Es. cbn [new_flw f_poisoned f_cfg f_inner mount_next with_inner rot_of a_step code_of s_w].
      left. split; [rewrite Ew; reflexivity|]. exists q, j. split; [exact Ew|]. split; [exact Ht|]. split; [exact Ha|].
      split; [reflexivity | exact R].
  - (* OTick *)
    cbn [rot_of a_step s_w]. left. rewrite Ew. split; [reflexivity|].
    exists (set_now q (wnow q + dt)%Z), j. split; [reflexivity|].
    destruct R as [Ht [Ha R]]. cbn [with_w s_tl s_w s_flw] in Ht, Ha, R.
    split; [exact Ht|]. split; [exact Ha|]. destruct a as [[cl cu]|].
    + destruct R as [wr [roll [Es [I [V [Z RS]]]]]]. exists wr, roll. cbn [with_w s_flw s_w].
      split; [exact Es|]. split; [apply (numdkinv_env c q); [exact I | reflexivity | apply quiet_set_now; apply I]|].
      split; [exact V|]. split; assumption.
    + cbn [with_w s_flw s_w]. destruct R as [Es [Q [Hn Hi]]]. split; [exact Es|]. split; [apply quiet_set_now; exact Q|]. split; assumption.
  - (* OSnap *)
    cbn [rot_of a_step]. left. split; [rewrite Ew; reflexivity|]. exists q, j. split; [exact Ew | exact R].
Qed.

(* the same with the bound in the form the run lemmas take *)
Lemma kstep_dk_run x a o : KRelDK x a -> basic_op o ->
  let '(x', ob) := step x o in
  (alive (s_w x') = true /\ KRelDK x' (a_step a o (rot_of ob)))
  \/ (alive (s_w x') = false /\ exists all,
        (dead (s_w x') /\ XDD c n m (wfs (s_w x')) all) /\ concat all = flat a /\ pred (length all) <= S (apot a)).
Proof.
  intros K0 Hb0. pose proof (kstep_dk x a o K0 Hb0) as S. destruct (step x o) as [x' ob].
  destruct S as [L | [Al [all [Dd [Fl Len]]]]]; [left; exact L | right; split; [exact Al|]; exists all].
  split; [exact Dd|]. split; [exact Fl | clear - Len; lia].
Qed.

(* the directory when no writer is there *)
Definition IdleKD (x : sys) (all : list bytes) : Prop :=
  s_tl x = [] /\ wacts (s_w x) = 0 /\ s_flw x = None /\ quiet (s_w x) /\ XDD c n m (wfs (s_w x)) all.

Lemma files_of_flat a : concat (files_of a) = flat a.
Proof. destruct a as [[cl cu]|]; cbn [files_of flat concat]; [|reflexivity]. rewrite concat_app. cbn [concat]. rewrite app_nil_r. reflexivity. Qed.

Lemma crash_alive_dk x a : KRelDK x a ->
  exists all, IdleKD (fst (step x OCrash)) all /\ concat all = flat a /\ pred (length all) = apot a.
Proof.
  intros [q [j [Ew [Ht [Ha R]]]]]. rewrite step_crash. cbn [sync_step fst]. cbn [with_w s_tl s_w s_flw] in Ht, Ha, R.
  unfold IdleKD. cbn [s_tl s_w s_flw]. rewrite Ew. cbn [kw set_kill set_acts wfs wacts].
  exists (files_of a). split; [|split; [apply files_of_flat|]].
  - destruct a as [[cl cu]|].
    + destruct R as [wr [roll [Es [I [V [Z RS]]]]]]. destruct (direct_wr_dk q wr cl _ _ I) as [Pw _].
      pose proof (numdkinv_xdd q wr cl I Pw) as X. rewrite V in X. pose proof (dk_quiet _ _ _ _ _ _ I) as [Qf _].
      split; [reflexivity|]. split; [reflexivity|]. split; [reflexivity|]. split; [split; [exact Qf | reflexivity] | exact X].
    + destruct R as [Es [[Qf _] [Hn Hi]]].
      split; [reflexivity|]. split; [reflexivity|]. split; [reflexivity|]. split; [split; [exact Qf | reflexivity] | apply empty_xdd; exact Hn].
  - destruct a as [[cl cu]|]; cbn [files_of apot length]; [rewrite len_snoc|]; reflexivity.
Qed.

Lemma crash_dead_dk x all : DeadKD c n m (s_w x) all -> IdleKD (fst (step x OCrash)) all.
Proof.
  intros [[_ Df] X]. rewrite step_crash. cbn [sync_step fst]. unfold IdleKD. cbn [s_tl s_w s_flw set_kill set_acts wfs wacts].
  split; [reflexivity|]. split; [reflexivity|]. split; [reflexivity|]. split; [split; [exact Df | reflexivity] | exact X].
Qed.

Lemma arm_kreldk x a j : RelDK c crit k x a -> KRelDK (fst (step x (OSetKill j))) a.
Proof.
  intros R. rewrite (step_sync_rel_dk c crit k x a _ Hcfg R). cbn [sync_step fst].
  exists (s_w x), j. split; [reflexivity|]. unfold with_w. cbn [s_flw s_tl s_dead]. destruct x; exact R.
Qed.

(* ---- the whole history of the killed process ---- *)
Lemma armed_dk t0 off ops1 kp : Forall basic_op ops1 ->
  exists a1, KRelDK (fst (run (fst (step (sys0 t0 off) (OStart c))) (ops1 ++ [OSetKill kp]))) a1
    /\ flat a1 = written ops1 /\ apot a1 <= length ops1.
Proof.
  exact (armed_of_kstep KRelDK (RelDK c crit k) _ ops1 kp (start_rel_dk c crit k t0 off)
           (fun ops x a R Hb => proj1 (run_rel_dk c crit k Hcfg ops x a R Hb (dside_of _))) (fun x a => arm_kreldk x a kp)).
Qed.

Lemma kill_history_dk t0 off ops1 kp ops2 : Forall basic_op ops1 -> Forall basic_op ops2 ->
  exists all, IdleKD (fst (run (sys0 t0 off) (OStart c :: ops1 ++ [OSetKill kp] ++ ops2 ++ [OCrash]))) all
    /\ concat all = written ops1 ++ acked (fst (run (sys0 t0 off) (OStart c :: ops1 ++ [OSetKill kp]))) ops2
    /\ length all <= S (S (length ops1 + length ops2)).
Proof.
  intros Hb1 Hb2. rewrite !fst_run_cons. destruct (armed_dk t0 off ops1 kp Hb1) as [a1 [K2 [F1 P1]]].
  destruct (history_of_kstep _ KRelDK (XDD c n m) (@concat N) (fun all => pred (length all)) kstep_dk_run IdleKD _ ops1 kp ops2 a1
              crash_alive_dk crash_dead_dk K2 F1 P1 Hb2) as [all [Id [Fl Len]]].
  exists all. split; [exact Id|]. split; [exact Fl | clear - Len; lia].
Qed.

(* the acknowledged bytes are the bytes written by a prefix of the operations: the process dies once *)
Lemma acked_prefix_kdk : forall ops x a, KRelDK x a -> Forall basic_op ops ->
  exists j, acked x ops = written (firstn j ops).
Proof. exact (acked_prefix_of_kstep _ KRelDK (XDD c n m) (@concat N) (fun all => pred (length all)) kstep_dk_run). Qed.

Lemma kill_history_prefix_dk t0 off ops1 kp ops2 : Forall basic_op ops1 -> Forall basic_op ops2 ->
  exists j, acked (fst (run (sys0 t0 off) (OStart c :: ops1 ++ [OSetKill kp]))) ops2 = written (firstn j ops2).
Proof.
  intros Hb1 Hb2. rewrite !fst_run_cons. destruct (armed_dk t0 off ops1 kp Hb1) as [a1 [K2 _]].
  exact (acked_prefix_kdk ops2 _ a1 K2 Hb2).
Qed.

End Direct.

(* the newest numbered file of such a directory is a plain file (n >= 1: the cleanup never compresses or removes it) *)
Lemma xdd_newest_plain c n m f all : 1 <= n -> XDD c n m f all -> all <> [] ->
  exists fl, file_of f (rname c (length all - 1)) = Some fl /\ isplain fl (last all []).
Proof.
  intros Hn (lo & mid & red & _ & _ & X & _ & U) Hne.
  assert (Hl : 1 <= length all) by (destruct all; [congruence | cbn [length]; lia]).
  destruct (xd_plain _ _ _ _ _ _ _ X (length all - 1)) as (fl & Ff & Hfl); [lia|].
  exists fl. split; [exact Ff|]. replace (last all []) with (nth (length all - 1) all []); [exact Hfl|].
  destruct (exists_last Hne) as (l & x & ->). rewrite last_last, app_length. cbn [length].
  rewrite app_nth2 by lia. replace (length l + 1 - 1 - length l) with 0 by lia. reflexivity.
Qed.

(* After any history  OStart c :: ops1 ++ [OSetKill kp] ++ ops2 ++ [OCrash]  from the empty directory (NumbersDirect naming
   with KeepLogFiles / KeepCompressedFiles / both, cleanup in the logging thread, direct mode; ops1, ops2 any basic
   operations; ANY kill point kp, those inside the cleanup included), there is `files` (the contents of all numbered files
   that were ever created, in order; the last one is the file that was being written) with  concat files = acknowledged
   records, and the directory, read as the reader does (kill_view, no rCURRENT), holds the files from number lo on:
   the stream the reader obtains, kv_stream files None lo, is a TAIL of the acknowledged records, and
   lo <= length files - (n + m) with (n, m) = klimd k, the effective limits: every record that a completed cleanup would
   have kept is there, none twice.  An unfinished archive (gzip state 2) occurs only next to its intact original and is
   ignored by the reader; a complete archive next to its original holds the same content.  The newest numbered file (the
   one being written, possibly empty: kill between its creation and the first write) is a PLAIN file: it is never
   compressed or removed.  Side condition as for C07: the suffix does not end with .gz. *)
Theorem numbersdirect_cleanup_kill_keeps_acked c crit k n m t0 off ops1 kp ops2 :
  numdkcfg c crit k -> klimd k = Some (n, m) -> c_cap c = None -> sfx_ok (c_spec c) ->
  Forall basic_op ops1 -> Forall basic_op ops2 ->
  let x1 := fst (run (sys0 t0 off) (OStart c :: ops1 ++ [OSetKill kp])) in
  let xe := fst (run (sys0 t0 off) (OStart c :: ops1 ++ [OSetKill kp] ++ ops2 ++ [OCrash])) in
  exists files lo,
    kill_view c (wfs (s_w xe)) files None lo
    /\ concat files = written ops1 ++ acked x1 ops2
    /\ lo <= length files - (n + m)
    /\ written ops1 ++ acked x1 ops2 = concat (firstn lo files) ++ kv_stream files None lo
    /\ (files <> [] -> exists fl, file_of (wfs (s_w xe)) (rname c (length files - 1)) = Some fl /\ isplain fl (last files [])).
Proof.
  intros Hcfg Hk Hcap Hsfx Hb1 Hb2 x1 xe.
  destruct (kill_history_dk c crit k n m Hcfg Hk Hcap Hsfx t0 off ops1 kp ops2 Hb1 Hb2) as (all & Id & F & _).
  destruct Id as (_ & _ & _ & _ & XD). fold xe in XD. fold x1 in F.
  pose proof XD as (lo & mid & red & W & Nd & X & U1 & U2).
  exists all, lo. split; [exact (xdir_kill_view c _ all None lo mid red X)|]. split; [exact F|].
  split; [exact U1|]. split.
  - rewrite <- F. pose proof (kv_stream_tail all None lo) as T. rewrite app_nil_r in T. exact T.
  - intros Hne. exact (xdd_newest_plain c n m _ all (klimd_pos _ _ _ Hk) XD Hne).
Qed.
Print Assumptions numbersdirect_cleanup_kill_keeps_acked.

(* what is acknowledged is what a prefix of ops2 wrote *)
Theorem acked_is_prefix_dk c crit k n m t0 off ops1 kp ops2 :
  numdkcfg c crit k -> klimd k = Some (n, m) -> c_cap c = None -> sfx_ok (c_spec c) ->
  Forall basic_op ops1 -> Forall basic_op ops2 ->
  exists j, acked (fst (run (sys0 t0 off) (OStart c :: ops1 ++ [OSetKill kp]))) ops2 = written (firstn j ops2).
Proof. intros Hcfg Hk Hcap Hsfx. apply (kill_history_prefix_dk c crit k n m Hcfg Hk Hcap Hsfx). Qed.
Print Assumptions acked_is_prefix_dk.
