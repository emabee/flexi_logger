(* Timestamps naming: the names of the rotated files (a closed file is named by its key: second, position within the
   second), the condition tag_ok under which the restart counter is read back from such a name, and what
   collision_free_infix answers on a directory that holds, for the time stamp asked for, exactly the files <ts>,
   <ts>.restart-0000, .. (n of them). *)
Require Import FL.Base.Bytes FL.Base.BytesFacts FL.Base.PathName FL.Fs.Fs FL.Fs.FsFacts FL.Time.Civil FL.Time.TsFormat
  FL.Names.FileSpec FL.Names.NamesFacts FL.Names.SortFacts FL.Names.FamilyFacts FL.Flw.Model FL.Flw.ModelFacts FL.Flw.NumFs
  FL.Flw.NumInv FL.Flw.Run FL.Flw.NumRun FL.Flw.NumListing FL.Flw.TsCal FL.Flw.TsTime.
Open Scope nat_scope.

(* ------------------------------------------------------------------ ".restart-" inside names *)
Lemma contains_false_iff p s : contains p s = false <-> find_sub p s = None.
Proof. apply contains_none. Qed.

Lemma contains_cons_false p c s : contains p (c :: s) = false -> is_prefix p (c :: s) = false /\ contains p s = false.
Proof.
  unfold contains. cbn [find_sub]. destruct (is_prefix p (c :: s)); [discriminate|]. destruct (find_sub p s); [discriminate|]. auto.
Qed.

Lemma is_prefix_refl p : is_prefix p p = true.
Proof. rewrite <- (app_nil_r p) at 2. apply sk_is_prefix_app. Qed.

(* no occurrence in A, none in B, and B does not start with a byte of the inner part of the tag: none in A ++ B *)
Lemma contains_tag_app A B : contains restart_tag A = false -> contains restart_tag B = false ->
  (forall h r, B = h :: r -> ~ In h (tl restart_tag)) -> contains restart_tag (A ++ B) = false.
Proof.
  intros HA HB Hh. induction A as [|c A IH]; [exact HB|].
  apply contains_cons_false in HA. destruct HA as [Hp HA]. specialize (IH HA).
  unfold contains in *. cbn [app find_sub].
  destruct (is_prefix restart_tag (c :: A ++ B)) eqn:E.
  - exfalso. change (c :: A ++ B) with ((c :: A) ++ B) in E. apply sk_is_prefix_split in E.
    destruct E as [E|[p2 [E1 E2]]]; [congruence|].
    destruct p2 as [|q p2].
    + rewrite app_nil_r in E1. rewrite <- E1, is_prefix_refl in Hp. discriminate.
    + destruct B as [|b r]; [discriminate E2|]. apply is_prefix_head in E2. subst b.
      apply (Hh q r eq_refl). rewrite E1. cbn [tl app]. apply in_or_app. right. left. reflexivity.
  - destruct (find_sub restart_tag (A ++ B)); [discriminate | reflexivity].
Qed.

Lemma no_dot_no_tag s : ~ In dot s -> contains restart_tag s = false.
Proof. intros H. apply contains_none. exact (no_head_no_sub dot restart_word s H). Qed.

(* ------------------------------------------------------------------ occurrences of a longer pattern *)
Lemma is_prefix_iff p : forall s, is_prefix p s = true <-> exists r, s = p ++ r.
Proof.
  intros s. split; [intros H; exists (skipn (length p) s); exact (is_prefix_skipn p s H) | intros [r ->]; apply is_prefix_app].
Qed.

Lemma find_sub_split p : forall s i, find_sub p s = Some i -> exists a b, s = a ++ p ++ b /\ length a = i.
Proof.
  induction s as [|x s IH]; intros i H; cbn [find_sub] in H.
  - destruct (is_prefix p []) eqn:E; [|discriminate]. injection H as <-. apply is_prefix_iff in E. destruct E as [r E].
    exists [], r. split; [exact E | reflexivity].
  - destruct (is_prefix p (x :: s)) eqn:E.
    + injection H as <-. apply is_prefix_iff in E. destruct E as [r E]. exists [], r. split; [exact E | reflexivity].
    + destruct (find_sub p s) as [j|] eqn:Ej; [|discriminate]. injection H as <-.
      destruct (IH j eq_refl) as [a [b [-> <-]]]. exists (x :: a), b. split; reflexivity.
Qed.

Lemma contains_intro p a b : contains p (a ++ p ++ b) = true.
Proof.
  unfold contains. induction a as [|x a IH]; cbn [app].
  - assert (E : is_prefix p (p ++ b) = true) by apply sk_is_prefix_app.
    destruct (p ++ b) as [|y r]; cbn [find_sub]; rewrite E; reflexivity.
  - cbn [find_sub]. destruct (is_prefix p (x :: a ++ p ++ b)); [reflexivity|].
    destruct (find_sub p (a ++ p ++ b)); [reflexivity | discriminate IH].
Qed.

Lemma contains_longer q p s : contains (q ++ p) s = true -> contains p s = true.
Proof.
  unfold contains at 1. destruct (find_sub (q ++ p) s) as [i|] eqn:E; [intros _ | discriminate].
  apply find_sub_split in E. destruct E as [a [b [-> _]]]. rewrite <- !app_assoc, (app_assoc a q). apply contains_intro.
Qed.

(* no occurrence starts within U *)
Lemma find_sub_app_skip P : forall U R, (forall a b, U = a ++ b -> b <> [] -> is_prefix P (b ++ R) = false) ->
  find_sub P (U ++ R) = match find_sub P R with Some i => Some (length U + i) | None => None end.
Proof.
  induction U as [|c U IH]; intros R H; cbn [app length Nat.add]; [destruct (find_sub P R); reflexivity|].
  cbn [find_sub]. pose proof (H [] (c :: U) eq_refl ltac:(discriminate)) as E0. cbn [app] in E0. rewrite E0.
  rewrite IH; [destruct (find_sub P R); reflexivity|].
  intros a b E Hb. apply (H (c :: a) b); [rewrite E; reflexivity | exact Hb].
Qed.

Lemma tag_no_uscore : ~ In uscore restart_tag.
Proof. unfold uscore, restart_tag. cbn [In]. intros X. repeat (destruct X as [X|X]; [discriminate X|]). exact X. Qed.

Lemma under_split fixed a b : under fixed = a ++ b -> b <> [] -> exists b', b = b' ++ [uscore] /\ fixed = a ++ b'.
Proof.
  intros EU Hb. destruct (exists_last Hb) as [b' [z ->]]. unfold under in EU. destruct fixed as [|f0 fr].
  - cbn [app] in EU. symmetry in EU. apply app_eq_nil in EU. destruct EU as [_ EU]. apply app_eq_nil in EU. destruct EU as [_ EU]. discriminate EU.
  - rewrite app_assoc in EU. apply app_inj_tail in EU. destruct EU as [EF <-]. exists b'. split; [reflexivity | exact EF].
Qed.

Lemma stamp_tag_not_in_under fixed T T' R' :
  length T = 20 -> length T' = 20 -> ~ In dot T' ->
  contains (T ++ restart_tag) fixed = false ->
  forall a b, under fixed = a ++ b -> b <> [] -> is_prefix (T ++ restart_tag) (b ++ T' ++ R') = false.
Proof.
  intros LT LT' HD' Hc a b EU Hb.
  destruct (is_prefix (T ++ restart_tag) (b ++ T' ++ R')) eqn:E; [exfalso|reflexivity].
  apply is_prefix_iff in E. destruct E as [rest E]. rewrite <- app_assoc in E.
  destruct (under_split fixed a b EU Hb) as [b' [-> EF]]. clear EU Hb.
  apply app_eq_app in E. destruct E as [l [[E1 E2]|[E1 E2]]].
  - apply app_eq_app in E2. destruct E2 as [l2 [[E3 E4]|[E3 E4]]].
    + destruct l as [|l0 lr].
      * cbn [app] in E3. subst l2. destruct T' as [|t0 T'r]; [discriminate LT'|].
        unfold restart_tag in E4. cbn [app] in E4. injection E4 as E4 _. apply HD'. left. exact E4.
      * destruct (@exists_last _ (l0 :: lr) ltac:(discriminate)) as [l' [z El]]. rewrite El in *.
        rewrite app_assoc in E1. apply app_inj_tail in E1. destruct E1 as [_ <-].
        apply tag_no_uscore. rewrite E3. apply in_or_app. left. apply in_or_app. right. left. reflexivity.
    + subst l. destruct l2 as [|l0 lr].
      * rewrite app_nil_r in E1. change restart_tag with ([46; 114; 101; 115; 116; 97; 114; 116] ++ [45])%N in E1.
        rewrite app_assoc in E1. apply app_inj_tail in E1. destruct E1 as [_ E1]. discriminate E1.
      * destruct (@exists_last _ (l0 :: lr) ltac:(discriminate)) as [l3 [z El]]. rewrite El in *.
        rewrite !app_assoc in E1. apply app_inj_tail in E1. destruct E1 as [E1 _].
        rewrite E1 in EF. rewrite EF, <- !app_assoc in Hc. rewrite (app_assoc T), contains_intro in Hc. discriminate Hc.
  - apply app_eq_app in E2. destruct E2 as [l2 [[E3 E4]|[E3 E4]]].
    + destruct l2 as [|z l2].
      * rewrite app_nil_r in E3. subst l. rewrite E1, !app_length in LT. cbn [length] in LT. lia.
      * unfold restart_tag in E4. cbn [app] in E4. injection E4 as E4 _. subst z. apply HD'. rewrite E3. apply in_or_app. right. left. reflexivity.
    + rewrite E1, E3, !app_length in LT. cbn [length] in LT. lia.
Qed.

(* ------------------------------------------------------------------ keys and names *)
(* a closed file is identified by the second of its creation and its position among the files of that second:
   0 = no restart counter, S m = restart counter m *)
Definition key := (Z * nat)%type.
Definition ktail (n : nat) : bytes := match n with O => [] | S m => restart_tag ++ restart_digits (N.of_nat m) end.
Definition infix_of (e : Z) (k : key) : bytes :=
  match snd k with O => tsx e (fst k) | S m => restart_infix (tsx e (fst k)) (N.of_nat m) end.
Definition kname (c : config) (e : Z) (k : key) : bytes := nm c (infix_of e k).

Lemma infix_of_tail e k : infix_of e k = tsx e (fst k) ++ ktail (snd k).
Proof. unfold infix_of, ktail. destruct (snd k); [rewrite app_nil_r; reflexivity | reflexivity]. Qed.

Lemma infix_of_nonempty e k : in_years e (fst k) -> infix_of e k <> [].
Proof. intros H E. rewrite infix_of_tail in E. apply app_eq_nil in E. destruct E as [E _]. exact (tsx_nonempty e _ H E). Qed.

Lemma kname_shape c e k : in_years e (fst k) ->
  kname c e k = under (fixed0 c) ++ tsx e (fst k) ++ ktail (snd k) ++ sfxs (c_spec c).
Proof.
  intros H. unfold kname, nm. rewrite as_name_some by (apply infix_of_nonempty; exact H).
  rewrite with_suffix_sfxs, infix_of_tail, <- !app_assoc. reflexivity.
Qed.

Lemma restart_digits_inj a b : restart_digits a = restart_digits b -> a = b.
Proof. intros E. apply (f_equal (fun s => dec_value (drop_zeros s))) in E. rewrite !restart_digits_value in E. exact E. Qed.

Lemma ktail_inj a b : ktail a = ktail b -> a = b.
Proof.
  destruct a as [|a], b as [|b]; cbn [ktail]; intros E; try reflexivity; try discriminate.
  apply app_inv_head in E. apply restart_digits_inj in E. lia.
Qed.

Lemma infix_of_inj e k1 k2 : in_years e (fst k1) -> in_years e (fst k2) -> infix_of e k1 = infix_of e k2 -> k1 = k2.
Proof.
  intros H1 H2 E. rewrite !infix_of_tail in E. apply app_inj_len in E; [|rewrite !tsx_length by assumption; reflexivity].
  destruct E as [E1 E2]. apply tsx_inj in E1; [|assumption|assumption]. apply ktail_inj in E2.
  destruct k1, k2; cbn [fst snd] in *; subst; reflexivity.
Qed.

Lemma tsx_app_not_cur e t y z : in_years e t -> tsx e t ++ y <> cur_infix ++ z.
Proof.
  intros H E. destruct (tsx_second e t H) as [d [r [Et D]]]. rewrite Et in E. unfold cur_infix in E. cbn [app] in E.
  injection E as E _. subst d. vm_compute in D. discriminate.
Qed.

Lemma infix_of_not_cur e k : in_years e (fst k) -> infix_of e k <> cur_infix.
Proof. intros H E. rewrite infix_of_tail in E. apply (tsx_app_not_cur e (fst k) (ktail (snd k)) [] H). rewrite app_nil_r. exact E. Qed.

Lemma kname_inj c e k1 k2 : in_years e (fst k1) -> in_years e (fst k2) -> kname c e k1 = kname c e k2 -> k1 = k2.
Proof.
  intros H1 H2 E. unfold kname, nm in E. apply as_name_inj in E; [|apply infix_of_nonempty; assumption|apply infix_of_nonempty; assumption].
  apply infix_of_inj in E; assumption.
Qed.

Lemma kname_not_cname c e k : in_years e (fst k) -> kname c e k <> cname c.
Proof.
  intros H E. unfold kname, cname, nm in E. apply as_name_inj in E; [|apply infix_of_nonempty; assumption|apply cur_infix_nonempty].
  exact (infix_of_not_cur e k H E).
Qed.

(* ------------------------------------------------------------------ the hypothesis on the configured name parts *)
(* The code looks for the restart counter of the siblings behind the first occurrence of <ts> ++ ".restart-" in the whole
   file name, <ts> being the time stamp infix asked for (before the repair: behind the first ".restart-", see the examples in
   TsTheorems.v).  What is still needed:
   - the fixed name part does not contain a time stamp infix followed by ".restart-" (a basename like
     "a_r2024-02-29_23-59-58.restart-7"; "a.restart-7" is fine),
   - nor does the suffix,
   - and the suffix does not start with "restart-" (the name <ts>.restart-5 of the first file of a second, with the suffix
     "restart-5", reads like a sibling with restart counter 5; see TsTheorems.tag_in_suffix_shifts_counters). *)
Definition has_stamp_tag (s : bytes) : Prop := exists e t, in_years e t /\ contains (tsx e t ++ restart_tag) s = true.
Definition tag_ok (c : config) : Prop :=
  ~ has_stamp_tag (fixed0 c) /\ ~ has_stamp_tag (sfxs (c_spec c)) /\ is_prefix restart_tag (sfxs (c_spec c)) = false.

(* the special case of tag_ok that a computation decides (tag_free_ok) *)
Definition tag_free (c : config) : Prop :=
  contains restart_tag (fixed0 c) = false /\ contains restart_tag (sfxs (c_spec c)) = false.

Lemma no_tag_no_stamp_tag s : contains restart_tag s = false -> ~ has_stamp_tag s.
Proof. intros H [e [t [_ X]]]. apply contains_longer in X. congruence. Qed.

(* a text of fewer than 29 bytes cannot contain a 20-byte time stamp followed by the 9 bytes ".restart-" *)
Lemma short_no_stamp_tag s : length s < 29 -> ~ has_stamp_tag s.
Proof.
  intros H [e [t [Y X]]]. unfold contains in X. destruct (find_sub (tsx e t ++ restart_tag) s) as [i|] eqn:E; [|discriminate].
  apply find_sub_split in E. destruct E as [a [b [-> _]]]. rewrite !app_length, (tsx_length e t Y) in H. change (length restart_tag) with 9 in H. lia.
Qed.

Lemma tag_free_ok c : tag_free c -> tag_ok c.
Proof.
  intros [Hf Hs]. split; [apply no_tag_no_stamp_tag, Hf|]. split; [apply no_tag_no_stamp_tag, Hs|].
  destruct (sfxs (c_spec c)) as [|h r]; [reflexivity|]. apply contains_cons_false in Hs. apply Hs.
Qed.

Lemma no_stamp_tag_contains s e t : ~ has_stamp_tag s -> in_years e t -> contains (tsx e t ++ restart_tag) s = false.
Proof. intros H Y. destruct (contains (tsx e t ++ restart_tag) s) eqn:E; [|reflexivity]. exfalso. apply H. exists e, t. auto. Qed.

(* <ts> ++ ".restart-" does not start within the fixed name part and its underscore when another time stamp follows *)
Lemma stamp_find_under c e t t' R :
  ~ has_stamp_tag (fixed0 c) -> in_years e t -> in_years e t' ->
  find_sub (tsx e t ++ restart_tag) (under (fixed0 c) ++ tsx e t' ++ R)
  = match find_sub (tsx e t ++ restart_tag) (tsx e t' ++ R) with Some i => Some (length (under (fixed0 c)) + i) | None => None end.
Proof.
  intros Hf Y Y'. apply find_sub_app_skip. apply stamp_tag_not_in_under.
  - apply tsx_length, Y.
  - apply tsx_length, Y'.
  - exact (tsx_no_dot e t' Y').
  - apply no_stamp_tag_contains; assumption.
Qed.

Lemma sfxs_head_ok sp h r : sfxs sp = h :: r -> ~ In h (tl restart_tag).
Proof.
  unfold sfxs. destruct (fsfx sp); [|discriminate]. intros E. injection E as <- _. unfold restart_tag, dot. cbn [tl In].
  intros X. repeat (destruct X as [X|X]; [discriminate X|]). exact X.
Qed.

(* the first file of a second is no restart sibling *)
Lemma kname_plain_no_tag c e t : tag_ok c -> in_years e t -> contains (tsx e t ++ restart_tag) (kname c e (t, 0)) = false.
Proof.
  intros [Hf [Hs Hp]] Y. rewrite kname_shape by exact Y. cbn [fst snd ktail app].
  unfold contains. rewrite (stamp_find_under c e t t _ Hf Y Y).
  rewrite find_sub_app_skip.
  - pose proof (no_stamp_tag_contains _ e t Hs Y) as X. unfold contains in X.
    destruct (find_sub (tsx e t ++ restart_tag) (sfxs (c_spec c))); [discriminate X | reflexivity].
  - intros a b Et Hb. destruct (is_prefix (tsx e t ++ restart_tag) (b ++ sfxs (c_spec c))) eqn:E; [exfalso | reflexivity].
    apply is_prefix_iff in E. destruct E as [rest E]. rewrite <- app_assoc in E. rewrite Et in E. apply app_eq_app in E. destruct E as [l [[E1 E2]|[E1 E2]]].
    + (* b = (a ++ b) ++ l *)
      assert (L : length b = length ((a ++ b) ++ l)) by (rewrite <- E1; reflexivity). rewrite !app_length in L.
      assert (La : a = []) by (destruct a; [reflexivity | cbn [length] in L; lia]).
      assert (Ll : l = []) by (destruct l; [reflexivity | cbn [length] in L; lia]).
      subst a l. cbn [app] in E2.
      assert (X : is_prefix restart_tag (sfxs (c_spec c)) = true) by (apply is_prefix_iff; exists rest; symmetry; exact E2).
      congruence.
    + (* a ++ b = b ++ l, sfxs = l ++ ".restart-" ++ rest *)
      destruct l as [|z l].
      * cbn [app] in E2. assert (X : is_prefix restart_tag (sfxs (c_spec c)) = true) by (apply is_prefix_iff; exists rest; exact E2).
        congruence.
      * apply (tsx_no_dot e t Y). rewrite Et, E1. apply in_or_app. right. left.
        unfold sfxs in E2. destruct (fsfx (c_spec c)); [|discriminate E2]. cbn [app] in E2. injection E2 as E2 _. symmetry. exact E2.
Qed.

Lemma kname_restart_find c e t m : ~ has_stamp_tag (fixed0 c) -> in_years e t ->
  kname c e (t, S m) = under (fixed0 c) ++ tsx e t ++ restart_tag ++ restart_digits (N.of_nat m) ++ sfxs (c_spec c)
  /\ find_sub (tsx e t ++ restart_tag) (kname c e (t, S m)) = Some (length (under (fixed0 c))).
Proof.
  intros Hf Y.
  assert (E : kname c e (t, S m) = under (fixed0 c) ++ tsx e t ++ restart_tag ++ restart_digits (N.of_nat m) ++ sfxs (c_spec c)).
  { rewrite kname_shape by exact Y. cbn [fst snd ktail]. rewrite <- !app_assoc. reflexivity. }
  split; [exact E|]. rewrite E, (stamp_find_under c e t t _ Hf Y Y).
  assert (P : is_prefix (tsx e t ++ restart_tag) (tsx e t ++ restart_tag ++ restart_digits (N.of_nat m) ++ sfxs (c_spec c)) = true).
  { rewrite (app_assoc (tsx e t)). apply sk_is_prefix_app. }
  destruct (tsx e t ++ restart_tag ++ restart_digits (N.of_nat m) ++ sfxs (c_spec c)) as [|x r]; cbn [find_sub]; rewrite P; f_equal; lia.
Qed.

Lemma fs_take_digits_app d rest : all_digits d = true -> (forall h r, rest = h :: r -> is_digit h = false) ->
  FileSpec.take_digits (d ++ rest) = d.
Proof.
  intros Hd Hr. induction d as [|x d IH]; cbn [app FileSpec.take_digits].
  - destruct rest as [|h r]; [reflexivity|]. cbn [FileSpec.take_digits]. rewrite (Hr h r eq_refl). reflexivity.
  - cbn [all_digits] in Hd. apply andb_prop in Hd. destruct Hd as [Hx Hd]. rewrite Hx, (IH Hd). reflexivity.
Qed.

Lemma restart_number_kname c e t m : ~ has_stamp_tag (fixed0 c) -> in_years e t -> (N.of_nat m <= usize_max)%N ->
  restart_number (tsx e t) (kname c e (t, S m)) = Some (N.of_nat m).
Proof.
  intros T H Hm. destruct (kname_restart_find c e t m T H) as [E F]. unfold restart_number. rewrite F, E.
  rewrite <- Nat.add_assoc, sk_skipn_app, sk_skipn_app.
  change (skipn 9 (restart_tag ++ restart_digits (N.of_nat m) ++ sfxs (c_spec c)))
    with (restart_digits (N.of_nat m) ++ sfxs (c_spec c)).
  rewrite fs_take_digits_app; [|apply restart_digits_all|].
  - rewrite parse_uint_digits; [|apply restart_digits_nonempty | apply restart_digits_all].
    assert (V : dec_value (restart_digits (N.of_nat m)) = N.of_nat m).
    { unfold restart_digits, pad_left. rewrite dec_value_zeros. apply dec_value_dec. }
    rewrite V. destruct (N.leb_spec (N.of_nat m) usize_max); [reflexivity | lia].
  - intros h r. unfold sfxs. destruct (fsfx (c_spec c)); [|discriminate]. intros X. injection X as <- _. reflexivity.
Qed.

Lemma kname_restart_contains c e t m : ~ has_stamp_tag (fixed0 c) -> in_years e t ->
  contains (tsx e t ++ restart_tag) (kname c e (t, S m)) = true.
Proof. intros T H. unfold contains. rewrite (proj2 (kname_restart_find c e t m T H)). reflexivity. Qed.

(* ------------------------------------------------------------------ the listing with the filter "infix = <ts>" *)
(* the directory: the closed files named by `keys` (not directories), possibly the current file, nothing else *)
Definition dir_is (c : config) (e : Z) (f : fs) (keys : list key) : Prop :=
  (forall k, In k keys -> exists j, lookup f (kname c e k) = Some j /\ fdir (inode f j) = false)
  /\ (forall n j, lookup f n = Some j -> n = cname c \/ exists k, In k keys /\ n = kname c e k).

Lemma restart_digits_length k : 4 <= length (restart_digits k).
Proof. unfold restart_digits, pad_left. rewrite app_length, repeat_length. lia. Qed.

Lemma ktail_restart_part m : restart_part (ktail m).
Proof.
  destruct m as [|m]; [left; reflexivity|]. right. exists (restart_digits (N.of_nat m)).
  split; [reflexivity|]. split; [apply restart_digits_length | apply restart_digits_all].
Qed.

Section Listing.
Variables (c : config) (e : Z) (off : Z) (ts : Z).
Hypothesis Hts : in_years e ts.
Let S := tsx e ts.
Let sfx := fsfx (c_spec c).
Let fixed := fixed0 c.

(* only names with this time stamp pass the filter, whatever suffix the listing asks for *)
Lemma qf_eq_upper keys o x :
  (forall k, In k keys -> in_years e (fst k)) ->
  (x = cname c \/ exists k, In k keys /\ x = kname c e k) ->
  qf off sfx fixed (IFEq S) o x = true -> exists m, In (ts, m) keys /\ x = kname c e (ts, m).
Proof.
  intros Hk Hx Q. unfold qf in Q. destruct (infix_candidate sfx o fixed x) as [i|] eqn:Ei; [|discriminate].
  cbn [filter_infix] in Q. apply beq_eq in Q. subst i. apply infix_candidate_prefix in Ei. destruct Ei as [y Ey].
  destruct Hx as [->|[k [Ik ->]]].
  - exfalso. rewrite cname_shape in Ey. apply app_inv_head in Ey. exact (tsx_app_not_cur e ts y _ Hts (eq_sym Ey)).
  - pose proof (Hk k Ik) as Yk. rewrite (kname_shape c e k Yk) in Ey. apply app_inv_head in Ey.
    apply app_inj_len in Ey; [|unfold S; rewrite !tsx_length by assumption; reflexivity].
    destruct Ey as [Ey _]. apply tsx_inj in Ey; [|assumption|assumption].
    exists (snd k). destruct k as [t m]; cbn [fst snd] in *. subst t. auto.
Qed.

(* every name with this time stamp passes the filter of the plain listing *)
Lemma qf_eq_lower m : qf off sfx fixed (IFEq S) sfx (kname c e (ts, m)) = true.
Proof.
  unfold qf, sfx, fixed. rewrite (family_is_candidate (c_spec c) (fixed0 c) (kname c e (ts, m)) S).
  - cbn [filter_infix]. apply beq_refl.
  - apply family_plain_alt. exists (ktail m). split; [apply ktail_restart_part|].
    split; [apply tsx_nonempty; exact Hts|]. split; [exact (tsx_no_dot e ts Hts)|].
    rewrite kname_shape by exact Hts. cbn [fst snd]. fold (sfxs (c_spec c)). rewrite <- !app_assoc. reflexivity.
Qed.
End Listing.

(* the name of the compressed file that collision_free_infix looks for does not exist *)
Lemma gz_name_absent c e f keys ts :
  in_years e ts -> (forall k, In k keys -> in_years e (fst k)) -> dir_is c e f keys ->
  lookup f (kname c e (ts, 0) ++ dot :: gz_sfx) = None.
Proof.
  intros Hts Hk [_ Hon]. destruct (lookup f (kname c e (ts, 0) ++ dot :: gz_sfx)) as [j|] eqn:E; [exfalso|reflexivity].
  rewrite kname_shape in E by exact Hts. cbn [fst snd ktail app] in E.
  destruct (Hon _ _ E) as [X|[k [Ik X]]].
  - rewrite cname_shape, <- !app_assoc in X. apply app_inv_head in X. exact (tsx_app_not_cur e ts _ _ Hts X).
  - pose proof (Hk k Ik) as Yk. rewrite (kname_shape c e k Yk), <- !app_assoc in X. apply app_inv_head in X.
    apply app_inj_len in X; [|rewrite !tsx_length by assumption; reflexivity]. destruct X as [_ X].
    apply (f_equal (@length N)) in X. destruct (snd k) as [|m]; cbn [ktail app] in X.
    + rewrite app_length in X. cbn [length] in X. lia.
    + (* "." ++ suffix ++ ".gz" is shorter than ".restart-" ++ digits ++ "." ++ suffix *)
      rewrite !app_length in X. change (length (dot :: gz_sfx)) with 3 in X. change (length restart_tag) with 9 in X. lia.
Qed.

(* THE CHARACTERISATION.  The directory holds exactly n files with the time stamp asked for - necessarily
   <ts>, <ts>.restart-0000, .., <ts>.restart-(n-2) - besides files with other time stamps and the current file.
   The answer is the next name of this sequence: <ts> for n = 0, <ts>.restart-0000 for n = 1, <ts>.restart-(n-1) else.
   No bound of 10000 on the counters: beyond 9999 the text just has more digits. *)
Theorem collision_free_infix_ts c e off f keys ts n :
  tag_ok c -> in_years e ts -> (forall k, In k keys -> in_years e (fst k)) -> dir_is c e f keys ->
  (forall m, In (ts, m) keys <-> m < n) -> (N.of_nat n <= usize_max)%N ->
  collision_free_infix off (c_spec c) (fixed0 c) f (tsx e ts) = Some (Some (infix_of e (ts, n))).
Proof.
  intros T Hts Hk D Hn Hmax. pose proof D as [Hin Hon].
  unfold collision_free_infix. rewrite !filter_files_total.
  set (rel := related_files f (fsfx (c_spec c)) (fixed0 c)).
  set (unc := filter (qf off (fsfx (c_spec c)) (fixed0 c) (IFEq (tsx e ts)) (fsfx (c_spec c))) rel).
  set (cmp := filter (qf off (fsfx (c_spec c)) (fixed0 c) (IFEq (tsx e ts)) (Some gz_sfx)) rel).
  set (sibs := filter (fun x => contains (tsx e ts ++ restart_tag) x) (unc ++ cmp)).
  (* what is listed carries this time stamp *)
  assert (A : forall x, In x (unc ++ cmp) -> exists m, m < n /\ x = kname c e (ts, m)).
  { intros x I. apply in_app_or in I.
    assert (X : exists o, In x rel /\ qf off (fsfx (c_spec c)) (fixed0 c) (IFEq (tsx e ts)) o x = true).
    { destruct I as [I|I]; apply filter_In in I; destruct I; eauto. }
    destruct X as [o [Ir Q]]. apply related_files_in in Ir. destruct Ir as [Id _].
    apply dir_names_lookup in Id. destruct Id as [j Lj].
    destruct (qf_eq_upper c e off ts Hts keys o x Hk (Hon x j Lj) Q) as [m [Im ->]]. exists m. split; [apply Hn; exact Im | reflexivity]. }
  (* every file with this time stamp is listed *)
  assert (B : forall m, m < n -> In (kname c e (ts, m)) (unc ++ cmp)).
  { intros m Hm. apply in_or_app. left. apply filter_In. split; [|apply qf_eq_lower; exact Hts].
    destruct (Hin (ts, m) (proj2 (Hn m) Hm)) as [j [Lj Pd]]. apply related_files_in. split; [apply dir_names_lookup; eauto|]. split.
    - unfold is_reg_file, file_of. rewrite Lj, Pd. reflexivity.
    - rewrite kname_shape by exact Hts. apply is_prefix_under. }
  (* the restart numbers found: 0 .. n-2 *)
  assert (R : forall v, In v (filter_map_opt (restart_number (tsx e ts)) sibs) <-> exists i, i < n - 1 /\ v = N.of_nat i).
  { intros v. rewrite filter_map_opt_in. split.
    - intros [x [Ix Ex]]. apply filter_In in Ix. destruct Ix as [Ix Cx]. destruct (A x Ix) as [m [Hm ->]].
      destruct m as [|m]; [rewrite kname_plain_no_tag in Cx by assumption; discriminate|].
      rewrite restart_number_kname in Ex by (assumption || apply T || lia). injection Ex as <-. exists m. split; [lia | reflexivity].
    - intros [i [Hi ->]]. exists (kname c e (ts, Datatypes.S i)). split.
      + apply filter_In. split; [apply B; lia | apply kname_restart_contains; [apply T | assumption]].
      + apply restart_number_kname; [apply T | assumption | lia]. }
  rewrite (max_opt_range _ _ R).
  (* the three tests *)
  assert (E1 : lookup f (as_name (c_spec c) (fixed0 c) (Some (tsx e ts))) = None <-> n = 0).
  { change (as_name (c_spec c) (fixed0 c) (Some (tsx e ts))) with (kname c e (ts, 0)). split.
    - intros L. destruct n as [|n']; [reflexivity|]. destruct (Hin (ts, 0) (proj2 (Hn 0) ltac:(lia))) as [j [Lj _]]. congruence.
    - intros ->. destruct (lookup f (kname c e (ts, 0))) as [j|] eqn:L; [exfalso|reflexivity].
      destruct (Hon _ _ L) as [X|[k [Ik X]]]; [exact (kname_not_cname c e (ts, 0) Hts X)|].
      apply kname_inj in X; [|exact Hts | apply Hk; exact Ik]. subst k. apply Hn in Ik. lia. }
  change (as_name (c_spec c) (fixed0 c) (Some (tsx e ts)) ++ dot :: gz_sfx) with (kname c e (ts, 0) ++ dot :: gz_sfx).
  rewrite (gz_name_absent c e f keys ts Hts Hk D). cbn [orb].
  destruct n as [|[|n']].
  - rewrite (proj2 E1 eq_refl). cbn [orb].
    assert (Es : sibs = []).
    { destruct sibs as [|x r] eqn:Es; [reflexivity|exfalso].
      assert (Ix : In x sibs) by (rewrite Es; left; reflexivity). apply filter_In in Ix. destruct (A x (proj1 Ix)) as [m [Hm _]]. lia. }
    rewrite Es. reflexivity.
  - assert (L : exists j, lookup f (as_name (c_spec c) (fixed0 c) (Some (tsx e ts))) = Some j).
    { assert (L : lookup f (as_name (c_spec c) (fixed0 c) (Some (tsx e ts))) <> None) by (intros X; apply E1 in X; discriminate).
      destruct (lookup f (as_name (c_spec c) (fixed0 c) (Some (tsx e ts)))) as [j|]; [eauto | congruence]. }
    destruct L as [j L]. rewrite L.
    cbn [orb Nat.sub]. reflexivity.
  - assert (L : exists j, lookup f (as_name (c_spec c) (fixed0 c) (Some (tsx e ts))) = Some j).
    { assert (L : lookup f (as_name (c_spec c) (fixed0 c) (Some (tsx e ts))) <> None) by (intros X; apply E1 in X; discriminate).
      destruct (lookup f (as_name (c_spec c) (fixed0 c) (Some (tsx e ts)))) as [j|]; [eauto | congruence]. }
    destruct L as [j L]. rewrite L.
    cbn [orb Nat.sub].
    destruct (N.ltb_spec (N.of_nat n') usize_max) as [_|X]; [|lia].
    unfold infix_of, restart_infix. cbn [fst snd]. replace (N.of_nat n' + 1)%N with (N.of_nat (Datatypes.S n')) by lia. reflexivity.
Qed.
Print Assumptions collision_free_infix_ts.
