(* Numbers naming with a cleanup strategy, killed process (C11), part 1: the directories that a kill can leave.
   A directory is seen as a function from names to files (file_of); the primitive effects are point updates of it.
   xdir: rCURRENT (optional), plain files r<i> for mid <= i < L, complete archives r<i>.gz for lo <= i < mid, and
   optionally the archive r<mid>.gz NEXT TO its original r<mid> (an interrupted compression: unfinished and empty
   (gzip state 2), or complete with the same content but the original not yet removed).
   kill_view: what a reader makes of such a directory. *)
Require Import FL.Base.Bytes FL.Base.BytesFacts FL.Base.PathName FL.Fs.Fs FL.Fs.FsFacts FL.Time.TsFormat
  FL.Names.FileSpec FL.Names.SortFacts FL.Names.FamilyFacts FL.Flw.Model FL.Flw.ModelFacts FL.Flw.NumFs
  FL.Flw.NumInv FL.Flw.Run FL.Flw.NumRun FL.Flw.NumListing FL.Flw.CleanupFacts
  FL.Flw.NumCleanupNames FL.Flw.NumCleanupStep FL.Flw.NumCleanupRun.
From Coq Require Import ZifyN ZifyNat ZifyBool.
Open Scope nat_scope.

(* ------------------------------------------------------------------ directories as functions *)
Definition dirf := bytes -> option file.
Definition fupd (F : dirf) (x : bytes) (v : option file) : dirf := fun y => if beq y x then v else F y.

Lemma fupd_same F x v : fupd F x v x = v.
Proof. unfold fupd. rewrite beq_refl. reflexivity. Qed.
Lemma fupd_other F x v y : y <> x -> fupd F x v y = F y.
Proof. intros H. unfold fupd. rewrite beq_neq by exact H. reflexivity. Qed.

Definition isplain (fl : file) (d : bytes) : Prop := fgz fl = 0%N /\ fdir fl = false /\ fdata fl = d.
Definition isarch (fl : file) (st : N) (d : bytes) : Prop := fgz fl = st /\ fdir fl = false /\ fdata fl = d.

(* the archive next to its original: complete (true: state 1, the content of the original) or unfinished (false: state 2, empty) *)
Definition red_st (b : bool) : N := if b then 1%N else 2%N.
Definition red_data (b : bool) (d : bytes) : bytes := if b then d else [].

Record xdir (c : config) (F : dirf) (closed : list bytes) (ocur : option bytes) (lo mid : nat) (red : option bool) : Prop := {
  xd_le : lo <= mid <= length closed;
  xd_plain : forall i, mid <= i < length closed -> exists fl, F (rname c i) = Some fl /\ isplain fl (nth i closed []);
  xd_arch : forall i, lo <= i < mid -> exists fl, F (gname c i) = Some fl /\ isarch fl 1%N (nth i closed []);
  xd_cur : match ocur with
           | Some cu => exists fl, F (cname c) = Some fl /\ isplain fl cu
           | None => F (cname c) = None end;
  xd_red : match red with
           | Some b => mid < length closed
                       /\ exists fl, F (gname c mid) = Some fl /\ isarch fl (red_st b) (red_data b (nth mid closed []))
           | None => True end;
  xd_only : forall n fl, F n = Some fl ->
      n = cname c \/ (exists i, mid <= i < length closed /\ n = rname c i) \/ (exists i, lo <= i < mid /\ n = gname c i)
      \/ (red <> None /\ n = gname c mid) }.

Lemma xdir_ext c F G closed ocur lo mid red : (forall y, G y = F y) -> xdir c F closed ocur lo mid red -> xdir c G closed ocur lo mid red.
Proof.
  intros E [H1 H2 H3 H4 H5 H6]. constructor.
  - exact H1.
  - intros i Hi. rewrite E. apply H2. exact Hi.
  - intros i Hi. rewrite E. apply H3. exact Hi.
  - destruct ocur; rewrite E; exact H4.
  - destruct red; [rewrite E|]; exact H5.
  - intros n fl. rewrite E. apply H6.
Qed.

(* names of the family are pairwise different *)
Ltac nmneq :=
  let E := fresh "E" in intros E;
  first [ apply rname_inj in E; lia | apply gname_inj in E; lia
        | exact (rname_not_cname _ _ E) | exact (rname_not_cname _ _ (eq_sym E))
        | exact (gname_not_cname _ _ E) | exact (gname_not_cname _ _ (eq_sym E))
        | exact (gname_ne_rname _ _ _ E) | exact (gname_ne_rname _ _ _ (eq_sym E)) ].

(* no archive exists next to a plain file, except the redundant one *)
Lemma xdir_no_gz c F closed ocur lo mid red i : xdir c F closed ocur lo mid red -> mid <= i -> (red = None \/ i <> mid) ->
  F (gname c i) = None.
Proof.
  intros X Hi Hr. destruct (F (gname c i)) as [fl|] eqn:E; [exfalso | reflexivity].
  destruct (xd_only _ _ _ _ _ _ _ X _ _ E) as [H|[(j & Hj & H)|[(j & Hj & H)|(Hn & H)]]].
  - exact (gname_not_cname _ _ H).
  - exact (gname_ne_rname _ _ _ H).
  - apply gname_inj in H. lia.
  - apply gname_inj in H. destruct Hr as [Hr|Hr]; [exact (Hn Hr) | exact (Hr H)].
Qed.
Lemma xdir_no_plain c F closed ocur lo mid red i : xdir c F closed ocur lo mid red -> (i < mid \/ length closed <= i) ->
  F (rname c i) = None.
Proof.
  intros X Hi. destruct (F (rname c i)) as [fl|] eqn:E; [exfalso | reflexivity].
  destruct (xd_only _ _ _ _ _ _ _ X _ _ E) as [H|[(j & Hj & H)|[(j & Hj & H)|(Hn & H)]]].
  - exact (rname_not_cname _ _ H).
  - apply rname_inj in H. lia.
  - exact (gname_ne_rname _ _ _ (eq_sym H)).
  - exact (gname_ne_rname _ _ _ (eq_sym H)).
Qed.

(* ------------------------------------------------------------------ the effects, on the level of names *)
(* File::create of the archive of the oldest plain file *)
Lemma xdir_create_gz c F closed ocur lo mid fl : xdir c F closed ocur lo mid None -> mid < length closed ->
  isarch fl 2%N [] -> xdir c (fupd F (gname c mid) (Some fl)) closed ocur lo mid (Some false).
Proof.
  intros X Hm Hfl. pose proof X as [H1 H2 H3 H4 _ H6]. constructor.
  - exact H1.
  - intros i Hi. rewrite fupd_other by nmneq. apply H2. exact Hi.
  - intros i Hi. rewrite fupd_other by nmneq. apply H3. exact Hi.
  - destruct ocur; rewrite fupd_other by nmneq; exact H4.
  - split; [exact Hm|]. exists fl. rewrite fupd_same. split; [reflexivity | exact Hfl].
  - intros n fl0 Hn. destruct (beq_spec n (gname c mid)) as [->|Hne].
    + right. right. right. split; [discriminate | reflexivity].
    + rewrite fupd_other in Hn by exact Hne.
      destruct (H6 _ _ Hn) as [H|[H|[H|(Hx & _)]]]; [auto | auto | auto | congruence].
Qed.

(* the encoder is finished: the archive is complete *)
Lemma xdir_finish_gz c F closed ocur lo mid fl : xdir c F closed ocur lo mid (Some false) ->
  isarch fl 1%N (nth mid closed []) -> xdir c (fupd F (gname c mid) (Some fl)) closed ocur lo mid (Some true).
Proof.
  intros X Hfl. pose proof X as [H1 H2 H3 H4 [Hm _] H6]. constructor.
  - exact H1.
  - intros i Hi. rewrite fupd_other by nmneq. apply H2. exact Hi.
  - intros i Hi. rewrite fupd_other by nmneq. apply H3. exact Hi.
  - destruct ocur; rewrite fupd_other by nmneq; exact H4.
  - split; [exact Hm|]. exists fl. rewrite fupd_same. split; [reflexivity | exact Hfl].
  - intros n fl0 Hn. destruct (beq_spec n (gname c mid)) as [->|Hne].
    + right. right. right. split; [discriminate | reflexivity].
    + rewrite fupd_other in Hn by exact Hne.
      destruct (H6 _ _ Hn) as [H|[H|[H|(_ & H)]]]; [auto | auto | auto | contradiction].
Qed.

(* the original of a complete archive is removed *)
Lemma xdir_remove_orig c F closed ocur lo mid : xdir c F closed ocur lo mid (Some true) ->
  xdir c (fupd F (rname c mid) None) closed ocur lo (S mid) None.
Proof.
  intros X. pose proof X as [H1 H2 H3 H4 [Hm (g & Fg & Hg)] H6]. constructor.
  - lia.
  - intros i Hi. rewrite fupd_other by nmneq. apply H2. lia.
  - intros i Hi. rewrite fupd_other by nmneq. destruct (Nat.eq_dec i mid) as [->|Hne].
    + exists g. split; [exact Fg | exact Hg].
    + apply H3. lia.
  - destruct ocur; rewrite fupd_other by nmneq; exact H4.
  - exact I.
  - intros n fl0 Hn. destruct (beq_spec n (rname c mid)) as [->|Hne]; [rewrite fupd_same in Hn; discriminate|].
    rewrite fupd_other in Hn by exact Hne.
    destruct (H6 _ _ Hn) as [H|[(i & Hi & H)|[(i & Hi & H)|(_ & H)]]].
    + left. exact H.
    + right. left. exists i. split; [|exact H]. destruct (Nat.eq_dec i mid) as [->|]; [contradiction | lia].
    + right. right. left. exists i. split; [lia | exact H].
    + right. right. left. exists mid. split; [lia | exact H].
Qed.

(* the archive of an interrupted compression is removed (the repair at the next start) *)
Lemma xdir_remove_red c F closed ocur lo mid b : xdir c F closed ocur lo mid (Some b) ->
  xdir c (fupd F (gname c mid) None) closed ocur lo mid None.
Proof.
  intros X. pose proof X as [H1 H2 H3 H4 [Hm _] H6]. constructor.
  - exact H1.
  - intros i Hi. rewrite fupd_other by nmneq. apply H2. exact Hi.
  - intros i Hi. rewrite fupd_other by nmneq. apply H3. exact Hi.
  - destruct ocur; rewrite fupd_other by nmneq; exact H4.
  - exact I.
  - intros n fl0 Hn. destruct (beq_spec n (gname c mid)) as [->|Hne]; [rewrite fupd_same in Hn; discriminate|].
    rewrite fupd_other in Hn by exact Hne.
    destruct (H6 _ _ Hn) as [H|[H|[H|(_ & H)]]]; [auto | auto | auto | contradiction].
Qed.

(* the oldest archive is removed *)
Lemma xdir_remove_lo c F closed ocur lo mid : xdir c F closed ocur lo mid None -> lo < mid ->
  xdir c (fupd F (gname c lo) None) closed ocur (S lo) mid None.
Proof.
  intros X Hl. pose proof X as [H1 H2 H3 H4 _ H6]. constructor.
  - lia.
  - intros i Hi. rewrite fupd_other by nmneq. apply H2. exact Hi.
  - intros i Hi. rewrite fupd_other by nmneq. apply H3. lia.
  - destruct ocur; rewrite fupd_other by nmneq; exact H4.
  - exact I.
  - intros n fl0 Hn. destruct (beq_spec n (gname c lo)) as [->|Hne]; [rewrite fupd_same in Hn; discriminate|].
    rewrite fupd_other in Hn by exact Hne.
    destruct (H6 _ _ Hn) as [H|[H|[(i & Hi & H)|(Hx & _)]]]; [auto | auto | | congruence].
    right. right. left. exists i. split; [|exact H]. destruct (Nat.eq_dec i lo) as [->|]; [contradiction | lia].
Qed.

(* the oldest plain file is removed when there are no archives (deletion only) *)
Lemma xdir_remove_mid c F closed ocur mid : xdir c F closed ocur mid mid None -> mid < length closed ->
  xdir c (fupd F (rname c mid) None) closed ocur (S mid) (S mid) None.
Proof.
  intros X Hl. pose proof X as [H1 H2 H3 H4 _ H6]. constructor.
  - lia.
  - intros i Hi. rewrite fupd_other by nmneq. apply H2. lia.
  - intros i Hi. lia.
  - destruct ocur; rewrite fupd_other by nmneq; exact H4.
  - exact I.
  - intros n fl0 Hn. destruct (beq_spec n (rname c mid)) as [->|Hne]; [rewrite fupd_same in Hn; discriminate|].
    rewrite fupd_other in Hn by exact Hne.
    destruct (H6 _ _ Hn) as [H|[(i & Hi & H)|[(i & Hi & H)|(Hx & _)]]]; [auto | | lia | congruence].
    right. left. exists i. split; [|exact H]. destruct (Nat.eq_dec i mid) as [->|]; [contradiction | lia].
Qed.

(* rCURRENT is renamed to the next number *)
Lemma xdir_rename_cur c F closed cu lo mid red : xdir c F closed (Some cu) lo mid red ->
  xdir c (fupd (fupd F (cname c) None) (rname c (length closed)) (F (cname c))) (closed ++ [cu]) None lo mid red.
Proof.
  intros X. pose proof X as [H1 H2 H3 (fc & Fc & Hc) H5 H6]. set (L := length closed) in *.
  assert (EL : length (closed ++ [cu]) = S L) by (rewrite app_length; cbn [length]; lia).
  constructor.
  - rewrite EL. lia.
  - rewrite EL. intros i Hi. destruct (Nat.eq_dec i L) as [->|Hne].
    + rewrite fupd_same. exists fc. split; [exact Fc|]. unfold L. rewrite app_nth2, Nat.sub_diag by lia. exact Hc.
    + rewrite fupd_other by nmneq. rewrite fupd_other by nmneq. rewrite app_nth1 by (fold L; lia). apply H2. lia.
  - intros i Hi. rewrite fupd_other by nmneq. rewrite fupd_other by nmneq. rewrite app_nth1 by (fold L; lia). apply H3. exact Hi.
  - rewrite fupd_other by nmneq. apply fupd_same.
  - destruct red as [b|]; [|exact I]. destruct H5 as [Hm (g & Fg & Hg)]. split; [rewrite EL; lia|].
    exists g. rewrite fupd_other by nmneq. rewrite fupd_other by nmneq. split; [exact Fg|].
    rewrite app_nth1 by (fold L; lia). exact Hg.
  - rewrite EL. intros n fl0 Hn. destruct (beq_spec n (rname c L)) as [->|Hne].
    + right. left. exists L. split; [lia | reflexivity].
    + rewrite fupd_other in Hn by exact Hne. destruct (beq_spec n (cname c)) as [->|Hnc]; [rewrite fupd_same in Hn; discriminate|].
      rewrite fupd_other in Hn by exact Hnc.
      destruct (H6 _ _ Hn) as [H|[(i & Hi & H)|[H|H]]]; [contradiction | | auto | auto].
      right. left. exists i. split; [lia | exact H].
Qed.

(* rCURRENT is created, or written to *)
Lemma xdir_set_cur c F closed ocur lo mid red fl cu : xdir c F closed ocur lo mid red -> isplain fl cu ->
  xdir c (fupd F (cname c) (Some fl)) closed (Some cu) lo mid red.
Proof.
  intros X Hfl. pose proof X as [H1 H2 H3 _ H5 H6]. constructor.
  - exact H1.
  - intros i Hi. rewrite fupd_other by nmneq. apply H2. exact Hi.
  - intros i Hi. rewrite fupd_other by nmneq. apply H3. exact Hi.
  - exists fl. rewrite fupd_same. split; [reflexivity | exact Hfl].
  - destruct red; [|exact I]. rewrite fupd_other by nmneq. exact H5.
  - intros n fl0 Hn. destruct (beq_spec n (cname c)) as [->|Hne]; [left; reflexivity|].
    rewrite fupd_other in Hn by exact Hne. exact (H6 _ _ Hn).
Qed.

(* no closed file is left: the numbering starts again (the next writer finds no index in the directory) *)
Lemma xdir_rebase c F closed ocur : xdir c F closed ocur (length closed) (length closed) None -> xdir c F [] ocur 0 0 None.
Proof.
  intros [H1 H2 H3 H4 _ H6]. constructor.
  - cbn [length]. lia.
  - cbn [length]. intros i Hi. lia.
  - intros i Hi. lia.
  - exact H4.
  - exact I.
  - intros n fl Hn. destruct (H6 _ _ Hn) as [H|[(i & Hi & _)|[(i & Hi & _)|(Hx & _)]]]; [auto | lia | lia | congruence].
Qed.

(* ------------------------------------------------------------------ the effects, on the level of the file system *)
Lemma file_of_some f n fl : file_of f n = Some fl <-> exists j, lookup f n = Some j /\ fl = inode f j.
Proof.
  unfold file_of. destruct (lookup f n) as [j|]; split.
  - intros E. injection E as <-. eauto.
  - intros (j' & E & ->). injection E as <-. reflexivity.
  - discriminate.
  - intros (j' & E & _). discriminate.
Qed.
Lemma file_of_none f n : file_of f n = None <-> lookup f n = None.
Proof. unfold file_of. destruct (lookup f n); split; congruence. Qed.

Lemma file_of_unlink f a y : file_of (unlink f a) y = fupd (file_of f) a None y.
Proof.
  destruct (unlink_spec f a) as (UI & UN & UO). destruct (beq_spec y a) as [->|Hne].
  - rewrite fupd_same. apply file_of_none. exact UN.
  - rewrite fupd_other by exact Hne. unfold file_of. rewrite UO by exact Hne. unfold inode. rewrite UI. reflexivity.
Qed.

Lemma file_of_create f a gz now y : fs_wf f ->
  file_of (fst (create_file f a gz now)) y = fupd (file_of f) a (Some {| fdata := []; fgz := gz; fborn := now; fdir := false |}) y.
Proof.
  intros W. pose proof (create_file_spec f a gz now) as S. destruct (create_file f a gz now) as [f' i]. cbn [fst].
  destruct S as (-> & Hino & La & Lo). destruct (beq_spec y a) as [->|Hne].
  - rewrite fupd_same. unfold file_of. rewrite La. unfold inode. rewrite Hino, inode_app_new. reflexivity.
  - rewrite fupd_other by exact Hne. unfold file_of. rewrite Lo by exact Hne. destruct (lookup f y) as [j|] eqn:E; [|reflexivity].
    unfold inode. rewrite Hino, inode_app_old by (apply (wf_bound _ W _ _ E)). reflexivity.
Qed.

Lemma file_of_set_gz f a i st d y : fs_wf f -> lookup f a = Some i ->
  file_of (set_gz f i st d) y = fupd (file_of f) a (Some {| fdata := d; fgz := st; fborn := fborn (inode f i); fdir := false |}) y.
Proof.
  intros W La. destruct (set_gz_spec f i st d (wf_bound _ W _ _ La)) as (SL & _ & SI & SO).
  destruct (beq_spec y a) as [->|Hne].
  - rewrite fupd_same. unfold file_of. rewrite SL, La, SI. reflexivity.
  - rewrite fupd_other by exact Hne. unfold file_of. rewrite SL. destruct (lookup f y) as [j|] eqn:E; [|reflexivity].
    rewrite SO; [reflexivity|]. intros ->. apply Hne. exact (wf_inj _ W _ _ _ E La).
Qed.

Lemma file_of_append f a i b y : fs_wf f -> lookup f a = Some i ->
  file_of (append_ino f i b) y = fupd (file_of f) a (Some (with_data (inode f i) (content f i ++ b))) y.
Proof.
  intros W La. pose proof (wf_bound _ W _ _ La) as Hi. destruct (beq_spec y a) as [->|Hne].
  - rewrite fupd_same. unfold file_of. rewrite lookup_append, La, inode_append, Nat.eqb_refl by exact Hi. reflexivity.
  - rewrite fupd_other by exact Hne. unfold file_of. rewrite lookup_append. destruct (lookup f y) as [j|] eqn:E; [|reflexivity].
    rewrite inode_append by exact Hi. destruct (Nat.eqb_spec j i) as [->|_]; [|reflexivity].
    exfalso. apply Hne. exact (wf_inj _ W _ _ _ E La).
Qed.

Lemma file_of_rename f a b i f' y : a <> b -> lookup f a = Some i -> rename f a b = Some f' ->
  file_of f' y = fupd (fupd (file_of f) a None) b (file_of f a) y.
Proof.
  intros Hab La Er. destruct (rename_spec f a b i Hab La) as (f1 & E & Hino & Lb & La' & Lo). rewrite Er in E. injection E as <-.
  destruct (beq_spec y b) as [->|Hnb].
  - rewrite fupd_same. unfold file_of. rewrite Lb, La. unfold inode. rewrite Hino. reflexivity.
  - rewrite fupd_other by exact Hnb. destruct (beq_spec y a) as [->|Hna].
    + rewrite fupd_same. apply file_of_none. exact La'.
    + rewrite fupd_other by exact Hna. unfold file_of. rewrite Lo by assumption. unfold inode. rewrite Hino. reflexivity.
Qed.

(* ------------------------------------------------------------------ kdir and xdir *)
Lemma kdir_xdir c f closed lo mid ocur : kdir c f closed lo mid ->
  match ocur with
  | Some cu => exists j, lookup f (cname c) = Some j /\ plain (inode f j) /\ content f j = cu
  | None => lookup f (cname c) = None end ->
  xdir c (file_of f) closed ocur lo mid None.
Proof.
  intros [Hle Hnd Hp Ha Hon] Hc. constructor.
  - exact Hle.
  - intros i Hi. destruct (Hp i Hi) as (j & Lj & [G D] & C). exists (inode f j). unfold file_of. rewrite Lj.
    split; [reflexivity|]. split; [exact G|]. split; [exact D | exact C].
  - intros i Hi. destruct (Ha i Hi) as (j & Lj & D & G & Dr). exists (inode f j). unfold file_of. rewrite Lj.
    split; [reflexivity|]. split; [exact G|]. split; [exact Dr | exact D].
  - destruct ocur as [cu|].
    + destruct Hc as (j & Lj & [G D] & C). exists (inode f j). unfold file_of. rewrite Lj.
      split; [reflexivity|]. split; [exact G|]. split; [exact D | exact C].
    + apply file_of_none. exact Hc.
  - exact I.
  - intros n fl Hn. apply file_of_some in Hn. destruct Hn as (j & Lj & _).
    destruct (Hon _ _ Lj) as [H|[H|H]]; auto.
Qed.

Lemma xdir_kdir c f closed ocur lo mid : xdir c (file_of f) closed ocur lo mid None -> nodup_names f -> kdir c f closed lo mid.
Proof.
  intros [H1 H2 H3 H4 _ H6] Hnd. constructor.
  - exact H1.
  - exact Hnd.
  - intros i Hi. destruct (H2 i Hi) as (fl & Ff & G & D & C). apply file_of_some in Ff. destruct Ff as (j & Lj & ->).
    exists j. split; [exact Lj|]. split; [split; assumption | exact C].
  - intros i Hi. destruct (H3 i Hi) as (fl & Ff & G & D & C). apply file_of_some in Ff. destruct Ff as (j & Lj & ->).
    exists j. auto.
  - intros n j Lj. assert (E : file_of f n = Some (inode f j)) by (unfold file_of; rewrite Lj; reflexivity).
    destruct (H6 _ _ E) as [H|[H|[H|(Hx & _)]]]; [auto | auto | auto | congruence].
Qed.

Lemma xdir_cur_lookup c f closed cu lo mid red : xdir c (file_of f) closed (Some cu) lo mid red ->
  exists j, lookup f (cname c) = Some j /\ plain (inode f j) /\ content f j = cu.
Proof.
  intros X. destruct (xd_cur _ _ _ _ _ _ _ X) as (fl & Ff & G & D & C). apply file_of_some in Ff. destruct Ff as (j & Lj & ->).
  exists j. split; [exact Lj|]. split; [split; assumption | exact C].
Qed.

(* ------------------------------------------------------------------ what a reader finds *)
(* The reader takes the family files in the order of their numbers, rCURRENT last, and decompresses archives.  At the
   number i it reads the plain file r<i> if there is one; an archive r<i>.gz next to it is ignored - it is an unfinished
   gzip stream (state 2; the oracle's reader skips such entries: family_entries keeps kinds 0 and 1 only) or a complete
   archive of the very same content (the reader must not take both).  Without a plain file it reads the complete
   archive; an unfinished archive never stands alone. *)
Definition reads_at (c : config) (f : fs) (i : nat) (d : bytes) : Prop :=
  match file_of f (rname c i) with
  | Some fl => isplain fl d
               /\ match file_of f (gname c i) with
                  | None => True
                  | Some g => fdir g = false /\ ((fgz g = 2%N /\ fdata g = []) \/ (fgz g = 1%N /\ fdata g = d))
                  end
  | None => exists g, file_of f (gname c i) = Some g /\ isarch g 1%N d
  end.

Definition kill_view (c : config) (f : fs) (closed : list bytes) (ocur : option bytes) (lo : nat) : Prop :=
  lo <= length closed
  /\ (forall i, lo <= i < length closed -> reads_at c f i (nth i closed []))
  /\ match ocur with
     | Some cu => exists j, lookup f (cname c) = Some j /\ plain (inode f j) /\ content f j = cu
     | None => lookup f (cname c) = None
     end
  /\ (forall n j, lookup f n = Some j ->
        n = cname c \/ exists i, lo <= i < length closed /\ (n = rname c i \/ n = gname c i)).

(* the stream that the reader obtains *)
Definition kv_stream (closed : list bytes) (ocur : option bytes) (lo : nat) : bytes :=
  concat (skipn lo closed) ++ match ocur with Some cu => cu | None => [] end.

Lemma kv_stream_tail closed ocur lo :
  concat closed ++ match ocur with Some cu => cu | None => [] end = concat (firstn lo closed) ++ kv_stream closed ocur lo.
Proof. unfold kv_stream. rewrite app_assoc, <- concat_app, firstn_skipn. reflexivity. Qed.

Lemma xdir_kill_view c f closed ocur lo mid red : xdir c (file_of f) closed ocur lo mid red -> kill_view c f closed ocur lo.
Proof.
  intros X. pose proof X as [H1 H2 H3 H4 H5 H6]. split; [lia|]. split; [|split].
  - intros i Hi. unfold reads_at. destruct (Nat.le_gt_cases mid i) as [Hm|Hm].
    + destruct (H2 i ltac:(lia)) as (fl & Ff & Hfl). rewrite Ff. split; [exact Hfl|].
      destruct (file_of f (gname c i)) as [g|] eqn:Eg; [|exact I].
      destruct (H6 _ _ Eg) as [H|[(j & Hj & H)|[(j & Hj & H)|(Hn & H)]]].
      * exfalso. exact (gname_not_cname _ _ H).
      * exfalso. exact (gname_ne_rname _ _ _ H).
      * apply gname_inj in H. lia.
      * apply gname_inj in H. subst i. destruct red as [b|]; [|congruence].
        destruct H5 as [_ (g' & Fg & G & D & C)]. rewrite Eg in Fg. injection Fg as <-. split; [exact D|].
        destruct b; cbn [red_st red_data] in *; [right | left]; split; assumption.
    + rewrite (xdir_no_plain c _ closed ocur lo mid red i X) by (left; exact Hm).
      destruct (H3 i ltac:(lia)) as (g & Fg & Hg). exists g. split; assumption.
  - destruct ocur as [cu|]; [exact (xdir_cur_lookup _ _ _ _ _ _ _ X) | apply file_of_none; exact H4].
  - intros n j Lj. assert (E : file_of f n = Some (inode f j)) by (unfold file_of; rewrite Lj; reflexivity).
    destruct (H6 _ _ E) as [H|[(i & Hi & H)|[(i & Hi & H)|(Hn & H)]]].
    + left. exact H.
    + right. exists i. split; [lia | left; exact H].
    + right. exists i. split; [lia | right; exact H].
    + right. exists mid. destruct red as [b|]; [|congruence]. destruct H5 as [Hm _]. split; [lia | right; exact H].
Qed.

(* the limits of the strategy have not been exceeded: the directory holds at least what a completed cleanup keeps *)
Definition uncl (k : cleanup) (L lo mid : nat) : Prop := lo <= k_lo k L /\ mid <= k_mid k L.

Lemma uncl_exact k L : uncl k L (k_lo k L) (k_mid k L).
Proof. split; lia. Qed.
Lemma uncl_grow k L lo mid : uncl k L lo mid -> uncl k (S L) lo mid.
Proof. unfold uncl, k_lo, k_mid. destruct (klim k) as [[n m]|]; lia. Qed.
