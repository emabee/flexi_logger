(* TimestampsDirect naming (r<time stamp>[.restart-NNNN], no rCURRENT): the write mode - Direct, BufWriter of any
   capacity, asynchronous with either - does not change WHAT is written NOR UNDER WHICH NAMES (C15), and after flush() /
   after the drop of the writer nothing accepted stays behind in a buffer (C04).

   The file names depend on the clock at the moment of a rotation.  The development of TsdRun.v / TsdTheorems.v states the
   existence of keys (second, position within the second) that name the files; to compare two runs the keys have to be
   KNOWN.  Part A: the keys as a function of the history - kd_step / kd_run (driven by the rotation flags) and ks_run (size
   criterion: the greedy rule decides) -, the invariant RelTdK = RelTd of TsdRun.v with the keys exposed, and the run
   theorems for the synchronous modes (the invariant does not mention the capacity).  Part B: any mode, through
   AsyncSim.v / AsyncTransfer.v: the asynchronous run goes through the same worlds as the synchronous run with the same
   capacity - every message is consumed before the next operation starts (the scheduling assumption of the model and of
   the test harness), so the rotation of the writer thread happens at the same instant of the model clock. *)
Require Import FL.Base.Bytes FL.Fs.Fs FL.Names.FileSpec FL.Flw.Model FL.Flw.ModelFacts FL.Flw.QuietFacts FL.Flw.NumInv FL.Flw.Run
  FL.Flw.NumRun FL.Oracles.O_Flw FL.Flw.NumTheorems FL.Flw.NumRestart FL.Flw.NumKillRestart FL.Flw.TsTime FL.Flw.TsNames
  FL.Flw.TsInv FL.Flw.TsRun FL.Flw.TsTheorems FL.Flw.TsdInv FL.Flw.TsdRun FL.Flw.TsReader FL.Flw.TsdTheorems
  FL.Flw.NumAsync FL.Flw.AsyncSim FL.Flw.AsyncTransfer FL.Flw.NumDAsync.
From Coq Require Import ZifyN ZifyNat ZifyBool.
Import String.StringSyntax.
Open Scope nat_scope.

(* ================================================================== Part A: the keys of a history *)
(* one operation: ks are the keys so far (the last one names the file being written), a the abstract view before the
   operation, rot the rotation decision of a write, now the clock.  The first write opens the file of the present second;
   a rotation opens the next free name of the present second *)
Definition kd_step (ks : list key) (a : aview) (o : op) (rot : bool) (now : Z) : list key :=
  match o with
  | OWrite _ | OPlain _ =>
    let ks0 := match a with Some _ => ks | None => [(now, 0)] end in
    if rot then ks0 ++ [(now, count now ks0)] else ks0
  | OTrigger => match a with Some _ => ks ++ [(now, count now ks)] | None => ks end
  | _ => ks
  end.

Fixpoint kd_run (ks : list key) (a : aview) (now : Z) (ops : list op) (obs : list obs) : list key :=
  match ops, obs with
  | o :: r, ob :: robs => kd_run (kd_step ks a o (rot_of ob) now) (a_step a o (rot_of ob)) (now + dt_of o)%Z r robs
  | _, _ => ks
  end.

(* size criterion: the rotation decisions are those of the greedy rule (s_run of NumRun.v) *)
Fixpoint ks_run (m : N) (ks : list key) (a : aview) (now : Z) (ops : list op) : list key :=
  match ops with
  | o :: r => let rot := (m <? N.of_nat (length (cur_of a)))%N in
              ks_run m (kd_step ks a o rot now) (a_step a o rot) (now + dt_of o)%Z r
  | [] => ks
  end.

(* the keys of a whole run that starts at t0 on an empty directory *)
Definition tsd_keys (m : N) (t0 : Z) (ops : list op) : list key := ks_run m [] None t0 ops.

Lemma kd_step_rot_irrelevant ks a o r1 r2 now : (forall b, o <> OWrite b /\ o <> OPlain b) -> kd_step ks a o r1 now = kd_step ks a o r2 now.
Proof. intros H. destruct o; try reflexivity; destruct (H b) as [H1 H2]; congruence. Qed.

(* ------------------------------------------------------------------ a write on an active writer, the keys exposed *)
Lemma write_active_tsd_k c crit e lo hi w wr keys closed roll b :
  tsdcfg c crit -> tag_ok c -> years_ok e lo hi -> TsdInv c e lo w wr keys closed ->
  (wnow w <= hi)%Z -> (N.of_nat (length keys) <= usize_max)%N -> roll_size_ok roll (length (cur_view w wr)) ->
  let rot := rotation_necessary w roll in
  let keys' := if rot then keys ++ [(wnow w, count (wnow w) keys)] else keys in
  exists w' wr' roll' closed',
    write_buffer (st_tsd c e (nth (length closed) keys kd) roll wr) w b
      = (Ok tt, w', st_tsd c e (nth (length closed') keys' kd) roll' wr', rot)
    /\ TsdInv c e lo w' wr' keys' closed' /\ roll_size_ok roll' (length (cur_view w' wr')) /\ same_env w w'
    /\ (closed', cur_view w' wr') = (if rot then (closed ++ [cur_view w wr], b) else (closed, cur_view w wr ++ b))
    /\ (forall m cur, roll = RSize m cur -> exists cur', roll' = RSize m cur').
Proof.
  intros Hcfg T Y I Hhi Hmax Hsz rot keys'.
  destruct (write_buffer_tsd c crit e lo hi w wr keys closed roll b Hcfg T Y I Hhi Hmax) as [w' [wr' [E [I' [S' V']]]]].
  fold rot in E, I', V'. pose proof (td_len _ _ _ _ _ _ _ I) as Hlen. unfold keys'.
  destruct rot; eexists w', wr', _, _; (split; [|split; [exact I'|]]).
  - rewrite nth_snoc_last by (rewrite app_length; cbn [length]; lia). exact E.
  - rewrite V'. split; [apply (roll_size_increase _ 0), reset_roll_size|]. split; [exact S'|]. split; [reflexivity|].
    intros m cur ->. cbn. eauto.
  - exact E.
  - rewrite V', app_length. split; [apply roll_size_increase; exact Hsz|]. split; [exact S'|]. split; [reflexivity|].
    intros m cur ->. cbn. eauto.
Qed.

(* ------------------------------------------------------------------ the invariant with the keys exposed *)
Definition RelTdK (c : config) (crit : criterion) (e lo : Z) (n : nat) (x : sys) (a : aview) (ks : list key) : Prop :=
  s_tl x = [] /\ wacts (s_w x) = 0 /\
  match a with
  | None => ks = [] /\ s_flw x = Some (new_flw c) /\ quiet (s_w x) /\ names (wfs (s_w x)) = [] /\ inodes (wfs (s_w x)) = []
            /\ eoff c (s_w x) = e /\ (lo <= wnow (s_w x))%Z
  | Some (closed, cur) =>
    exists wr roll, s_flw x = Some (st_tsd c e (nth (length closed) ks kd) roll wr)
      /\ TsdInv c e lo (s_w x) wr ks closed
      /\ cur_view (s_w x) wr = cur /\ length closed <= n
      /\ roll_size_ok roll (length cur) /\ (forall m, crit = CSize m -> exists k, roll = RSize m k)
  end.

Lemma reltdk_reltd c crit e lo n x a ks : RelTdK c crit e lo n x a ks -> RelTd c crit e lo n x a.
Proof.
  intros [Ht [Ha R]]. split; [exact Ht|]. split; [exact Ha|]. destruct a as [[closed cur]|].
  - destruct R as [wr [roll R]]. exists ks, wr, roll. exact R.
  - apply R.
Qed.

Lemma reltdk_quiet c crit e lo n x a ks : RelTdK c crit e lo n x a ks -> quiet (s_w x).
Proof. intros [_ [_ R]]. destruct a as [[cl cu]|]; [destruct R as [wr [roll [_ [I _]]]]; apply I | apply R]. Qed.

Lemma RelTdK_mono c crit e lo n x a ks : RelTdK c crit e lo n x a ks -> RelTdK c crit e lo (S n) x a ks.
Proof.
  intros [Ht [Ha R]]. split; [exact Ht|]. split; [exact Ha|]. destruct a as [[closed cur]|]; [|exact R].
  destruct R as [wr [roll [Es [I [V [Hn ZR]]]]]]. exists wr, roll.
  split; [exact Es|]. split; [exact I|]. split; [exact V|]. split; [lia | exact ZR].
Qed.

Lemma start_rel_tsd_k c crit t0 off : RelTdK c crit (ts_e c off) t0 0 (fst (step (sys0 t0 off) (OStart c))) None [].
Proof. cbn. repeat split. cbn. lia. Qed.

(* what a write does, from either kind of state *)
Lemma write_rel_tsd_k c crit e lo hi n x a ks b :
  tsdcfg c crit -> tag_ok c -> years_ok e lo hi -> RelTdK c crit e lo n x a ks ->
  (wnow (s_w x) <= hi)%Z -> (N.of_nat (S n) <= usize_max)%N ->
  exists s w' s' rot, s_flw x = Some s /\ f_poisoned s = false /\
    write_buffer s (s_w x) b = (Ok tt, w', s', rot)
    /\ RelTdK c crit e lo (S n) {| s_flw := Some s'; s_w := w'; s_tl := []; s_dead := s_dead x |} (a_step a (OWrite b) rot)
              (kd_step ks a (OWrite b) rot (wnow (s_w x)))
    /\ wnow w' = wnow (s_w x)
    /\ (forall m, crit = CSize m -> rot = (m <? N.of_nat (length (cur_of a)))%N).
Proof.
  intros Hcfg T Y [Ht [Ha R]] Hhi Hmax. destruct a as [[closed cur]|].
  - destruct R as [wr [roll [Es [I [V [Hn [Z RS]]]]]]].
    rewrite <- V in Z.
    assert (Hk : (N.of_nat (length ks) <= usize_max)%N) by (rewrite (td_len _ _ _ _ _ _ _ I); lia).
    destruct (write_active_tsd_k c crit e lo hi (s_w x) wr ks closed roll b Hcfg T Y I Hhi Hk Z)
      as [w' [wr' [roll' [closed' [E [I' [Z' [S' [V' R']]]]]]]]].
    cbv zeta in E, I'.
    exists (st_tsd c e (nth (length closed) ks kd) roll wr), w'. eexists. exists (rotation_necessary (s_w x) roll).
    split; [exact Es|]. split; [reflexivity|]. split; [exact E|].
    split; [|split; [exact (same_env_now _ _ S')|]].
    + split; [reflexivity|]. split; [cbn [s_w]; exact (same_env_acts _ _ S' Ha)|].
      cbn [a_step kd_step]. rewrite V in V'.
      destruct (rotation_necessary (s_w x) roll); injection V' as -> V''; (exists wr', roll'; cbn [s_flw s_w];
        split; [reflexivity|]; split; [exact I'|]; split; [exact V''|]; split; [rewrite ?app_length; cbn [length]; lia|];
        split; [rewrite <- V''; exact Z'|];
        intros m Hm; destruct (RS m Hm) as [k ->]; destruct (R' m k eq_refl) as [k' ->]; eauto).
    + intros m Hm. destruct (RS m Hm) as [k ->]. cbn in Z. subst k. rewrite V. reflexivity.
  - destruct R as [-> [Es [Q [Hn [Hi [Hoff Hlo]]]]]].
    destruct (initialize_empty_tsd c crit e lo (s_w x) Hcfg Q Hn Hi Hoff Hlo) as [w1 [wr [roll [Ei [I [V [Z [S1 RS]]]]]]]].
    assert (Hnow1 : wnow w1 = wnow (s_w x)) by exact (same_env_now _ _ S1).
    assert (Hhi1 : (wnow w1 <= hi)%Z) by (rewrite Hnow1; exact Hhi).
    assert (Z0 : roll_size_ok roll (length (cur_view w1 wr))) by (rewrite V; exact Z).
    destruct (write_active_tsd_k c crit e lo hi w1 wr [(wnow (s_w x), 0)] [] roll b Hcfg T Y I Hhi1 ltac:(cbn [length]; lia) Z0)
      as [w' [wr' [roll' [closed' [E [I' [Z' [S' [V' R']]]]]]]]].
    cbv zeta in E, I'. rewrite Hnow1 in E, I'.
    exists (new_flw c), w'. eexists. exists (rotation_necessary w1 roll).
    split; [exact Es|]. split; [reflexivity|].
    split. { rewrite (write_buffer_init c (s_w x) b _ _ _ w1 Ei). exact E. }
    split; [|split; [rewrite (same_env_now _ _ S'); exact Hnow1|]].
    + split; [reflexivity|]. split; [cbn [s_w]; exact (same_env_acts _ _ (same_env_trans _ _ _ S1 S') Ha)|].
      cbn [a_step kd_step]. rewrite V in V'. cbn [app] in V'.
      destruct (rotation_necessary w1 roll); injection V' as -> V''; (exists wr', roll'; cbn [s_flw s_w];
        split; [reflexivity|]; split; [exact I'|]; split; [exact V''|]; split; [cbn [app length]; lia|];
        split; [rewrite <- V''; exact Z'|]).
      * intros m Hm. rewrite (RS m Hm) in R'. destruct (R' m 0%N eq_refl) as [k' ->]; eauto.
      * intros m Hm. rewrite (RS m Hm) in R'. destruct (R' m 0%N eq_refl) as [k' ->]; eauto.
    + intros m Hm. rewrite (RS m Hm). reflexivity.
Qed.

(* one basic operation: the relation with the keys of kd_step, the clock, the rotation flag of a write under a size
   criterion, a normal result *)
Lemma step_rel_tsd_k c crit e lo hi n x a ks o :
  tsdcfg c crit -> tag_ok c -> years_ok e lo hi -> RelTdK c crit e lo n x a ks -> basic_op o -> tick_ok o ->
  (wnow (s_w x) <= hi)%Z -> (N.of_nat (S n) <= usize_max)%N ->
  let '(x', ob) := step x o in
  RelTdK c crit e lo (S n) x' (a_step a o (rot_of ob)) (kd_step ks a o (rot_of ob) (wnow (s_w x)))
  /\ wnow (s_w x') = (wnow (s_w x) + dt_of o)%Z
  /\ (forall b m, (o = OWrite b \/ o = OPlain b) -> crit = CSize m -> rot_of ob = (m <? N.of_nat (length (cur_of a)))%N)
  /\ obs_ok ob.
Proof.
  intros Hcfg T Y R Hb Htk Hhi Hmax.
  rewrite (step_sync_rel_tsd c crit e lo n x a o Hcfg (reltdk_reltd _ _ _ _ _ _ _ _ R)).
  destruct o; try contradiction; cbn [sync_step dt_of].
  - (* OWrite *)
    destruct (write_rel_tsd_k c crit e lo hi n x a ks b Hcfg T Y R Hhi Hmax) as [s [w' [s' [rot [Es [Hp [E [R' [Hw C]]]]]]]]].
    rewrite Es, Hp. rewrite (proj1 R). cbn [app]. rewrite E. cbn [rot_of s_w]. split; [exact R'|]. split; [lia|].
    split; [|reflexivity]. intros b0 m _ Hm. exact (C m Hm).
  - (* OPlain *)
    destruct (write_rel_tsd_k c crit e lo hi n x a ks b Hcfg T Y R Hhi Hmax) as [s [w' [s' [rot [Es [Hp [E [R' [Hw C]]]]]]]]].
    rewrite Es, Hp, E. cbn [rot_of code_of s_w]. rewrite (proj1 R). split; [exact R'|]. split; [lia|].
    split; [|reflexivity]. intros b0 m _ Hm. exact (C m Hm).
  - (* OFlush *)
    destruct R as [Ht [Ha R]]. destruct a as [[closed cur]|].
    + destruct R as [wr [roll [Es [I [V [Hn ZR]]]]]]. rewrite Es. cbn [st_tsd f_poisoned].
      destruct (flush_active_tsd c e lo (s_w x) wr ks closed roll (nth (length closed) ks kd) I) as [w' [wr' [E [I' [V' [P' S']]]]]].
      fold (st_tsd c e (nth (length closed) ks kd) roll wr). rewrite E. cbn [rot_of a_step kd_step s_w].
      split; [|split; [rewrite (same_env_now _ _ S'); lia | split; [intros b m [H|H]; discriminate | reflexivity]]].
      split; [exact Ht|]. split; [exact (same_env_acts _ _ S' Ha)|]. exists wr', roll. cbn [s_flw s_w].
      split; [reflexivity|]. split; [exact I'|]. split; [congruence|]. split; [lia | exact ZR].
    + destruct R as [Ek [Es R]]. rewrite Es. cbn [new_flw f_poisoned flush_state f_inner rot_of a_step kd_step s_w].
      split; [|split; [lia | split; [intros b m [H|H]; discriminate | reflexivity]]].
      split; [exact Ht|]. split; [exact Ha|]. split; [exact Ek|]. split; [reflexivity | exact R].
  - (* OTrigger *)
    destruct R as [Ht [Ha R]]. destruct a as [[closed cur]|].
    + destruct R as [wr [roll [Es [I [V [Hn [Z RS]]]]]]]. rewrite Es. cbn [st_tsd f_poisoned f_cfg f_inner].
      assert (Hk : (N.of_nat (length ks) <= usize_max)%N) by (rewrite (td_len _ _ _ _ _ _ _ I); lia).
      destruct (mount_next_rotates_tsd c crit e lo hi (s_w x) wr ks closed roll true Hcfg T Y I Hhi Hk eq_refl)
        as [w' [wr' [roll' [E [I' [V' [Z' [S' R']]]]]]]].
      rewrite E. cbn [rot_of a_step kd_step code_of with_inner f_cfg f_poisoned s_w].
      split; [|split; [rewrite (same_env_now _ _ S'); lia | split; [intros b m [H|H]; discriminate | reflexivity]]].
      split; [exact Ht|]. split; [exact (same_env_acts _ _ S' Ha)|]. rewrite V in *.
      exists wr', roll'. cbn [s_flw s_w].
      split.
      { rewrite nth_snoc_last by (rewrite app_length; cbn [length]; rewrite (td_len _ _ _ _ _ _ _ I); lia). reflexivity. }
      split; [exact I'|]. split; [exact V'|]. split; [rewrite app_length; cbn [length]; lia|]. split; [exact Z'|].
      intros m Hm. destruct (RS m Hm) as [k ->]. destruct (R' m k eq_refl) as [k' ->]. eauto.
    + destruct R as [Ek [Es R]]. rewrite Es. cbn [new_flw f_poisoned f_cfg f_inner mount_next with_inner rot_of a_step kd_step code_of s_w].
      split; [|split; [lia | split; [intros b m [H|H]; discriminate | reflexivity]]].
      split; [exact Ht|]. split; [exact Ha|]. split; [exact Ek|]. split; [reflexivity | exact R].
  - (* OTick *)
    cbn [rot_of a_step kd_step s_w set_now wnow tick_ok] in *.
    split; [|split; [reflexivity | split; [intros b m [H|H]; discriminate | reflexivity]]].
    destruct R as [Ht [Ha R]]. split; [exact Ht|]. split; [exact Ha|]. destruct a as [[closed cur]|].
    + destruct R as [wr [roll [Es [I [V [Hn ZR]]]]]]. exists wr, roll. cbn [s_flw s_w].
      split; [exact Es|]. split; [apply tsdinv_tick; assumption|]. split; [exact V|]. split; [lia | exact ZR].
    + cbn [s_flw s_w]. destruct R as [Ek [Es [Q [Hn [Hi [Hoff Hlo]]]]]]. repeat split; try assumption; try apply Q. cbn [set_now wnow]. lia.
  - (* OSnap *)
    cbn [rot_of a_step kd_step]. split; [apply RelTdK_mono; exact R|]. split; [lia|]. split; [intros b m [H|H]; discriminate|].
    cbn [snapshot obs_ok]. exact Logic.I.
Qed.

(* a history *)
Lemma run_rel_tsd_k c crit e lo hi : tsdcfg c crit -> tag_ok c -> years_ok e lo hi ->
  forall ops x a ks n, RelTdK c crit e lo n x a ks -> Forall basic_op ops -> Forall tick_ok ops ->
  (wnow (s_w x) + elapsed ops <= hi)%Z -> (N.of_nat (n + length ops) <= usize_max)%N ->
  RelTdK c crit e lo (n + length ops) (fst (run x ops)) (a_run a ops (snd (run x ops))) (kd_run ks a (wnow (s_w x)) ops (snd (run x ops)))
  /\ wnow (s_w (fst (run x ops))) = (wnow (s_w x) + elapsed ops)%Z
  /\ Forall obs_ok (snd (run x ops))
  /\ (forall m, crit = CSize m ->
        a_run a ops (snd (run x ops)) = s_run m a ops
        /\ kd_run ks a (wnow (s_w x)) ops (snd (run x ops)) = ks_run m ks a (wnow (s_w x)) ops).
Proof.
  intros Hcfg T Y. induction ops as [|o r IH]; intros x a ks n R Hb Htk Hhi Hmax.
  - cbn [run fst snd a_run kd_run length elapsed]. rewrite Nat.add_0_r. split; [exact R|]. split; [lia|]. split; [constructor|].
    intros m _. split; reflexivity.
  - cbn [run]. inversion Hb as [|o' r' Ho Hr]; subst. inversion Htk as [|o' r' Hto Htr]; subst.
    cbn [elapsed length] in *. pose proof (elapsed_nonneg r Htr) as Er.
    assert (Hdt : (0 <= dt_of o)%Z) by (destruct o; cbn [dt_of tick_ok] in *; lia).
    pose proof (step_rel_tsd_k c crit e lo hi n x a ks o Hcfg T Y R Ho Hto ltac:(lia) ltac:(lia)) as S. destruct (step x o) as [x1 ob].
    destruct S as [R1 [W1 [C1 K1]]]. specialize (IH x1 _ _ (S n) R1 Hr Htr ltac:(lia) ltac:(lia)). destruct (run x1 r) as [x2 obs].
    cbn [fst snd a_run kd_run] in *. replace (n + S (length r)) with (S n + length r) by lia. destruct IH as [IH1 [IH2 [IH3 IH4]]].
    rewrite W1 in IH1, IH4.
    split; [exact IH1|]. split; [lia|]. split; [constructor; assumption|].
    intros m Hm. destruct (IH4 m Hm) as [IHa IHb].
    assert (Erot : a_step a o (rot_of ob) = a_step a o (m <? N.of_nat (length (cur_of a)))%N
                   /\ kd_step ks a o (rot_of ob) (wnow (s_w x)) = kd_step ks a o (m <? N.of_nat (length (cur_of a)))%N (wnow (s_w x))).
    { destruct o; try (split; reflexivity).
      - rewrite (C1 b m (or_introl eq_refl) Hm). split; reflexivity.
      - rewrite (C1 b m (or_intror eq_refl) Hm). split; reflexivity. }
    destruct Erot as [Ea Ek]. cbn [s_run ks_run]. rewrite <- Ea, <- Ek. split; assumption.
Qed.

(* ------------------------------------------------------------------ what the reader finds *)
(* with nothing pending the directory reads as the abstract view, under the names given by the keys *)
Lemma reltdk_view c crit e lo n x a ks : RelTdK c crit e lo n x a ks -> pending x = [] ->
  tsd_view c e (wfs (s_w x)) ks (files_of a) /\ keys_ok ks /\ (forall k, In k ks -> (lo <= fst k <= wnow (s_w x))%Z).
Proof.
  intros [_ [_ R]] P. destruct a as [[closed cur]|]; cbn [files_of].
  - destruct R as [wr [roll [Es [I [V _]]]]]. rewrite (pending_active _ _ _ wr _ Es eq_refl) in P.
    split; [rewrite <- V; apply (tsdinv_view c e lo); assumption|].
    split; [exact (td_keys _ _ _ _ _ _ _ I) | exact (td_range _ _ _ _ _ _ _ I)].
  - destruct R as [-> [_ [_ [Hn _]]]]. split; [apply tsd_view_nil; auto|]. split; [constructor | intros k []].
Qed.

(* a flush: the relation is kept, nothing is pending afterwards *)
Lemma flush_rel_tsd_k c crit e lo n x a ks : tsdcfg c crit -> RelTdK c crit e lo n x a ks ->
  RelTdK c crit e lo n (fst (step x OFlush)) a ks /\ pending (fst (step x OFlush)) = []
  /\ wnow (s_w (fst (step x OFlush))) = wnow (s_w x).
Proof.
  intros Hcfg R0. rewrite (step_sync_rel_tsd c crit e lo n x a OFlush Hcfg (reltdk_reltd _ _ _ _ _ _ _ _ R0)). cbn [sync_step].
  destruct R0 as [Ht [Ha R]]. destruct a as [[closed cur]|].
  - destruct R as [wr [roll [Es [I [V [Hn ZR]]]]]]. rewrite Es. cbn [st_tsd f_poisoned].
    destruct (flush_active_tsd c e lo (s_w x) wr ks closed roll (nth (length closed) ks kd) I) as [w' [wr' [E [I' [V' [P' S']]]]]].
    fold (st_tsd c e (nth (length closed) ks kd) roll wr). rewrite E. cbn [fst s_w]. split; [|split].
    + split; [exact Ht|]. split; [exact (same_env_acts _ _ S' Ha)|]. exists wr', roll. cbn [s_flw s_w].
      split; [reflexivity|]. split; [exact I'|]. split; [congruence|]. split; [exact Hn | exact ZR].
    + erewrite pending_active by reflexivity. exact P'.
    + exact (same_env_now _ _ S').
  - destruct R as [Ek [Es R]]. rewrite Es. cbn [new_flw f_poisoned flush_state f_inner fst s_w]. split; [|split].
    + split; [exact Ht|]. split; [exact Ha|]. split; [exact Ek|]. split; [reflexivity | exact R].
    + apply (pending_initial _ c); reflexivity.
    + reflexivity.
Qed.

(* the drop of the writer *)
Lemma stop_rel_tsd_k c crit e lo n x a ks : tsdcfg c crit -> RelTdK c crit e lo n x a ks ->
  let x' := fst (step x OStop) in
  tsd_view c e (wfs (s_w x')) ks (files_of a) /\ keys_ok ks /\ (forall k, In k ks -> (lo <= fst k <= wnow (s_w x))%Z)
  /\ s_flw x' = None.
Proof.
  intros Hcfg R0. cbn zeta. rewrite (step_sync_rel_tsd c crit e lo n x a OStop Hcfg (reltdk_reltd _ _ _ _ _ _ _ _ R0)).
  destruct R0 as [Ht [Ha R]]. cbn [sync_step]. destruct a as [[closed cur]|]; cbn [files_of].
  - destruct R as [wr [roll [Es [I [V _]]]]]. rewrite Es. unfold st_tsd. cbn [f_poisoned].
    pose proof (td_quiet _ _ _ _ _ _ _ I) as Q. rewrite drop_state_quiet by exact Q. cbn [s_w s_flw fst].
    destruct (tsdinv_append c e lo (s_w x) (flushed (s_w x) wr) wr (emptied wr) ks closed (wpend wr) I (flushed_fs _ wr)
                (flushed_env _ wr Q) eq_refl eq_refl (wr_ok_nil _ _)) as [I1 C1].
    assert (V1 : cur_view (flushed (s_w x) wr) (emptied wr) = cur).
    { rewrite <- V. unfold cur_view. rewrite C1. cbn [emptied wpend]. apply app_nil_r. }
    split; [|split; [exact (td_keys _ _ _ _ _ _ _ I) | split; [exact (td_range _ _ _ _ _ _ _ I) | reflexivity]]].
    rewrite <- V1. apply (tsdinv_view c e lo); [exact I1 | reflexivity].
  - destruct R as [-> [Es [Q [Hn Hi]]]]. rewrite Es. cbn [new_flw f_poisoned drop_state shutdown_state f_inner s_w s_flw fst].
    split; [apply tsd_view_nil; auto|]. split; [constructor|]. split; [intros k [] | reflexivity].
Qed.

(* ------------------------------------------------------------------ whole runs, synchronous modes *)
Section SyncRuns.
Variables (c : config) (crit : criterion) (t0 off : Z) (ops : list op).
Hypothesis Hcfg : tsdcfg c crit.
Hypothesis T : tag_ok c.
Hypothesis Hb : Forall basic_op ops.
Hypothesis Htk : Forall tick_ok ops.
Hypothesis Hlo : (0 <= t0 + ts_e c off)%Z.
Hypothesis Hhi : (t0 + elapsed ops + ts_e c off < sec_max)%Z.
Hypothesis Hmax : (N.of_nat (length ops) <= usize_max)%N.

(* the state after the history *)
Lemma tsd_run_k :
  exists x0 ob0, step (sys0 t0 off) (OStart c) = (x0, ob0) /\ ob0 = ObsRes 0%N false /\
    let x1 := fst (run x0 ops) in
    let a := a_run None ops (snd (run x0 ops)) in
    let ks := kd_run [] None t0 ops (snd (run x0 ops)) in
    RelTdK c crit (ts_e c off) t0 (length ops) x1 a ks
    /\ wnow (s_w x1) = (t0 + elapsed ops)%Z
    /\ Forall obs_ok (snd (run x0 ops))
    /\ flat a = written ops
    /\ (forall m, crit = CSize m -> files_of a = expected_files m None (items false ops) /\ ks = tsd_keys m t0 ops).
Proof.
  destruct (step (sys0 t0 off) (OStart c)) as [x0 ob0] eqn:E0.
  exists x0, ob0. split; [reflexivity|]. split; [cbn in E0; injection E0 as _ <-; reflexivity|].
  pose proof (start_rel_tsd_k c crit t0 off) as R0. rewrite E0 in R0. cbn [fst] in R0.
  assert (W0 : wnow (s_w x0) = t0) by (cbn in E0; injection E0 as <- _; reflexivity).
  assert (Y : years_ok (ts_e c off) t0 (t0 + elapsed ops)) by (split; assumption).
  pose proof (run_rel_tsd_k c crit _ _ _ Hcfg T Y ops x0 None [] 0 R0 Hb Htk ltac:(lia) ltac:(cbn [Nat.add]; exact Hmax)) as [R1 [W1 [K1 Z1]]].
  rewrite W0 in *. cbn [Nat.add] in R1. cbn zeta.
  split; [exact R1|]. split; [exact W1|]. split; [exact K1|].
  split. { pose proof (a_run_flat ops None (snd (run x0 ops)) Hb (run_length ops x0)) as F. cbn [flat app] in F. exact F. }
  intros m Hm. destruct (Z1 m Hm) as [Ea Ek]. rewrite Ea, Ek. split; [apply s_run_none; exact Hb | reflexivity].
Qed.

(* the hypotheses of the simulation *)
Lemma tsd_sync_ok :
  Forall obs_ok (snd (run (sys0 t0 off) (OStart c :: ops))) /\ quiet (s_w (fst (run (sys0 t0 off) (OStart c :: ops)))).
Proof.
  destruct tsd_run_k as [x0 [ob0 [E0 [Eob [R1 [_ [K1 _]]]]]]]. cbn [run]. rewrite E0.
  destruct (run x0 ops) as [x1 obs1]. cbn [fst snd] in *. subst ob0.
  split; [constructor; [reflexivity | exact K1] | exact (reltdk_quiet _ _ _ _ _ _ _ _ R1)].
Qed.

(* after the drop of the writer *)
Theorem tsd_stop_sync :
  let x := fst (run (sys0 t0 off) (OStart c :: ops ++ [OStop])) in
  exists keys files,
    tsd_view c (ts_e c off) (wfs (s_w x)) keys files /\ concat files = written ops
    /\ keys_ok keys /\ (forall k, In k keys -> (t0 <= fst k <= t0 + elapsed ops)%Z)
    /\ s_flw x = None
    /\ (forall m, crit = CSize m -> files = expected_files m None (items false ops) /\ keys = tsd_keys m t0 ops).
Proof.
  destruct tsd_run_k as [x0 [ob0 [E0 [_ [R1 [W1 [_ [F Z]]]]]]]]. cbn zeta in *. cbn [run]. rewrite E0, run_app.
  destruct (run x0 ops) as [x1 obs1]. cbn [fst snd] in *.
  destruct (stop_rel_tsd_k c crit _ _ _ x1 _ _ Hcfg R1) as [V [K [Rg Fl]]]. cbn [run]. destruct (step x1 OStop) as [x2 ob2]. cbn [fst] in *.
  eexists. eexists. split; [exact V|]. split; [rewrite files_flat; exact F|]. split; [exact K|].
  split; [intros k Ik; specialize (Rg k Ik); lia|]. split; [exact Fl | exact Z].
Qed.

(* after a flush *)
Theorem tsd_flush_sync :
  let x := fst (run (sys0 t0 off) (OStart c :: ops ++ [OFlush])) in
  exists keys files,
    tsd_view c (ts_e c off) (wfs (s_w x)) keys files /\ concat files = written ops
    /\ keys_ok keys /\ (forall k, In k keys -> (t0 <= fst k <= t0 + elapsed ops)%Z)
    /\ pending x = []
    /\ (forall m, crit = CSize m -> files = expected_files m None (items false ops) /\ keys = tsd_keys m t0 ops).
Proof.
  destruct tsd_run_k as [x0 [ob0 [E0 [_ [R1 [W1 [_ [F Z]]]]]]]]. cbn zeta in *. cbn [run]. rewrite E0, run_app.
  destruct (run x0 ops) as [x1 obs1]. cbn [fst snd] in *.
  destruct (flush_rel_tsd_k c crit _ _ _ x1 _ _ Hcfg R1) as [R2 [P W2]]. cbn [run]. destruct (step x1 OFlush) as [x2 ob2]. cbn [fst] in *.
  destruct (reltdk_view c crit _ _ _ x2 _ _ R2 P) as [V [K Rg]].
  eexists. eexists. split; [exact V|]. split; [rewrite files_flat; exact F|]. split; [exact K|].
  split; [intros k Ik; specialize (Rg k Ik); lia|]. split; [exact P | exact Z].
Qed.
End SyncRuns.

Print Assumptions tsd_stop_sync.
Print Assumptions tsd_flush_sync.

(* ================================================================== Part B: any mode *)
(* TimestampsDirect naming, no cleanup, no start-time part, no symlink; ANY write mode; use_utc either way *)
Definition tsdmcfg (c : config) (crit : criterion) : Prop :=
  c_rot c = Some (crit, NTimestampsDirect, KNever) /\ fts (c_spec c) = false /\ c_symlink c = false.
Definition tsdacfg (c : config) (crit : criterion) : Prop := tsdmcfg c crit /\ c_async c = true.

Lemma tsdmcfg_sync c crit : tsdmcfg c crit -> tsdcfg (sync_of c) crit.
Proof. intros [H1 [H2 H3]]. repeat split; assumption. Qed.
Lemma tsdcfg_any c crit : tsdcfg c crit -> tsdmcfg c crit.
Proof. intros [H1 [H2 [H3 _]]]. repeat split; assumption. Qed.
Lemma tsdmcfg_mode c1 c2 crit : same_but_mode c1 c2 -> tsdmcfg c1 crit -> tsdmcfg c2 crit.
Proof. intros [S1 [_ [S3 [_ [S5 _]]]]] [H1 [H2 H3]]. repeat split; congruence. Qed.

(* what the statements mention of the configuration does not depend on the mode *)
Lemma same_mode_tag_ok c1 c2 : same_but_mode c1 c2 -> tag_ok c1 -> tag_ok c2.
Proof. intros [S1 _]. unfold tag_ok, fixed0. rewrite S1. exact (fun H => H). Qed.
Lemma same_mode_ts_e c1 c2 off : same_but_mode c1 c2 -> ts_e c1 off = ts_e c2 off.
Proof. intros [_ [_ [_ [S4 _]]]]. unfold ts_e. rewrite S4. reflexivity. Qed.
Lemma same_mode_tsd_view c1 c2 e f keys files : same_but_mode c1 c2 -> tsd_view c1 e f keys files -> tsd_view c2 e f keys files.
Proof. intros Hm. unfold tsd_view, kname. rewrite (same_mode_nm c1 c2 Hm). exact (fun H => H). Qed.

Lemma elapsed_snoc_flush ops : elapsed (ops ++ [OFlush]) = elapsed ops.
Proof. induction ops as [|o r IH]; [reflexivity|]. cbn [app elapsed]. rewrite IH. reflexivity. Qed.
Lemma ticks_snoc_flush ops : Forall tick_ok ops -> Forall tick_ok (ops ++ [OFlush]).
Proof. intros H. apply Forall_app. split; [exact H | repeat constructor]. Qed.

Section AnyMode.
Variables (c : config) (crit : criterion) (t0 off : Z) (ops : list op).
Hypothesis Hcfg : tsdmcfg c crit.
Hypothesis T : tag_ok c.
Hypothesis Hb : Forall basic_op ops.
Hypothesis Htk : Forall tick_ok ops.
Hypothesis Hlo : (0 <= t0 + ts_e c off)%Z.
Hypothesis Hhi : (t0 + elapsed ops + ts_e c off < sec_max)%Z.
Hypothesis Hmax : (N.of_nat (length ops) <= usize_max)%N.

Let Hs : tsdcfg (sync_of c) crit := tsdmcfg_sync c crit Hcfg.

Lemma tsd_ok_sync_of :
  Forall obs_ok (snd (run (sys0 t0 off) (OStart (sync_of c) :: ops)))
  /\ quiet (s_w (fst (run (sys0 t0 off) (OStart (sync_of c) :: ops)))).
Proof. exact (tsd_sync_ok (sync_of c) crit t0 off ops Hs T Hb Htk Hlo Hhi Hmax). Qed.

Lemma tsd_to_sync :
  let r := run (sys0 t0 off) (OStart c :: ops) in
  let rs := run (sys0 t0 off) (OStart (sync_of c) :: ops) in
  let r' := run (sys0 t0 off) (OStart c :: ops ++ [OStop]) in
  let rs' := run (sys0 t0 off) (OStart (sync_of c) :: ops ++ [OStop]) in
  s_w (fst r) = s_w (fst rs) /\ pending (fst r) = pending (fst rs) /\ s_w (fst r') = s_w (fst rs').
Proof. destruct tsd_ok_sync_of as [K Q]. exact (to_sync c t0 off ops Hb K Q). Qed.

(* C04, drop of the writer (shutdown + drop of the last handle), any mode; for a size criterion the contents are the
   greedy partition and the names are those of tsd_keys - functions of the history and the clock alone *)
Theorem tsd_stop_durable :
  let x := fst (run (sys0 t0 off) (OStart c :: ops ++ [OStop])) in
  exists keys files,
    tsd_view c (ts_e c off) (wfs (s_w x)) keys files /\ concat files = written ops
    /\ keys_ok keys /\ (forall k, In k keys -> (t0 <= fst k <= t0 + elapsed ops)%Z)
    /\ pending x = [] /\ s_flw x = None
    /\ (forall m, crit = CSize m -> files = expected_files m None (items false ops) /\ keys = tsd_keys m t0 ops).
Proof.
  cbn zeta. destruct tsd_to_sync as [_ [_ E]]. cbn zeta in E. rewrite E.
  destruct (tsd_stop_sync (sync_of c) crit t0 off ops Hs T Hb Htk Hlo Hhi Hmax) as [keys [files [V [F [K [Rg [_ Z]]]]]]].
  exists keys, files. split; [exact V|]. split; [exact F|]. split; [exact K|]. split; [exact Rg|].
  pose proof (run_stop_flw (sys0 t0 off) (OStart c :: ops)) as Fl.
  split; [exact (pending_none _ Fl)|]. split; [exact Fl | exact Z].
Qed.
End AnyMode.

(* C04, flush, any mode.  Asynchronous mode: "after the flush" is after the writer thread has consumed the flush message -
   in the model and in the test harness that is before the next operation starts *)
Theorem tsd_flush_durable c crit t0 off ops :
  tsdmcfg c crit -> tag_ok c -> Forall basic_op ops -> Forall tick_ok ops ->
  (0 <= t0 + ts_e c off)%Z -> (t0 + elapsed ops + ts_e c off < sec_max)%Z -> (N.of_nat (S (length ops)) <= usize_max)%N ->
  let x := fst (run (sys0 t0 off) (OStart c :: ops ++ [OFlush])) in
  exists keys files,
    tsd_view c (ts_e c off) (wfs (s_w x)) keys files /\ concat files = written ops
    /\ keys_ok keys /\ (forall k, In k keys -> (t0 <= fst k <= t0 + elapsed ops)%Z)
    /\ pending x = []
    /\ (forall m, crit = CSize m -> files = expected_files m None (items false ops) /\ keys = tsd_keys m t0 ops).
Proof.
  intros Hcfg T Hb Htk Hlo Hhi Hmax. cbn zeta.
  assert (Hmax' : (N.of_nat (length (ops ++ [OFlush])) <= usize_max)%N) by (rewrite app_length; cbn [length]; lia).
  destruct (tsd_to_sync c crit t0 off (ops ++ [OFlush]) Hcfg T (basic_snoc_flush ops Hb) (ticks_snoc_flush ops Htk) Hlo
              ltac:(rewrite elapsed_snoc_flush; exact Hhi) Hmax') as [E [P _]].
  cbn zeta in E, P. rewrite E, P.
  assert (Hmax0 : (N.of_nat (length ops) <= usize_max)%N) by lia.
  exact (tsd_flush_sync (sync_of c) crit t0 off ops (tsdmcfg_sync _ _ Hcfg) T Hb Htk Hlo Hhi Hmax0).
Qed.

(* C15: two configurations that differ in the write mode only - Direct, buffered with any capacity, asynchronous with
   either - leave, after the same operations under the same clock and the drop of the writer, the same directory: the
   same file names (kname c1 = kname c2; the keys tsd_keys m t0 ops) with the same contents, the greedy partition of the
   written records and chunks, and nothing else *)
Theorem tsd_modes c1 c2 m t0 off ops :
  same_but_mode c1 c2 -> tsdmcfg c1 (CSize m) -> tag_ok c1 -> Forall basic_op ops -> Forall tick_ok ops ->
  (0 <= t0 + ts_e c1 off)%Z -> (t0 + elapsed ops + ts_e c1 off < sec_max)%Z -> (N.of_nat (length ops) <= usize_max)%N ->
  let f1 := wfs (s_w (fst (run (sys0 t0 off) (OStart c1 :: ops ++ [OStop])))) in
  let f2 := wfs (s_w (fst (run (sys0 t0 off) (OStart c2 :: ops ++ [OStop])))) in
  let keys := tsd_keys m t0 ops in
  let files := expected_files m None (items false ops) in
  tsd_view c1 (ts_e c1 off) f1 keys files /\ tsd_view c1 (ts_e c1 off) f2 keys files /\ tsd_view c2 (ts_e c2 off) f2 keys files
  /\ keys_ok keys /\ (forall k, In k keys -> (t0 <= fst k <= t0 + elapsed ops)%Z).
Proof.
  intros Hm H1 T1 Hb Htk Hlo Hhi Hmax. cbn zeta.
  pose proof (tsdmcfg_mode c1 c2 _ Hm H1) as H2. pose proof (same_mode_tag_ok c1 c2 Hm T1) as T2.
  pose proof (same_mode_ts_e c1 c2 off Hm) as Ee.
  destruct (tsd_stop_durable c1 (CSize m) t0 off ops H1 T1 Hb Htk Hlo Hhi Hmax) as [k1 [f1 [V1 [_ [K1 [R1 [_ [_ Z1]]]]]]]].
  destruct (tsd_stop_durable c2 (CSize m) t0 off ops H2 T2 Hb Htk ltac:(rewrite <- Ee; exact Hlo) ltac:(rewrite <- Ee; exact Hhi) Hmax)
    as [k2 [f2 [V2 [_ [_ [_ [_ [_ Z2]]]]]]]].
  cbn zeta in *. destruct (Z1 m eq_refl) as [-> ->]. destruct (Z2 m eq_refl) as [-> ->].
  split; [exact V1|]. split; [|split; [exact V2 | split; assumption]].
  rewrite Ee. apply (same_mode_tsd_view c2 c1); [apply same_but_mode_sym; exact Hm | exact V2].
Qed.

(* flushed directories agree across the modes *)
Theorem tsd_modes_flushed c1 c2 m t0 off ops :
  same_but_mode c1 c2 -> tsdmcfg c1 (CSize m) -> tag_ok c1 -> Forall basic_op ops -> Forall tick_ok ops ->
  (0 <= t0 + ts_e c1 off)%Z -> (t0 + elapsed ops + ts_e c1 off < sec_max)%Z -> (N.of_nat (S (length ops)) <= usize_max)%N ->
  let x1 := fst (run (sys0 t0 off) (OStart c1 :: ops ++ [OFlush])) in
  let x2 := fst (run (sys0 t0 off) (OStart c2 :: ops ++ [OFlush])) in
  let keys := tsd_keys m t0 ops in
  let files := expected_files m None (items false ops) in
  tsd_view c1 (ts_e c1 off) (wfs (s_w x1)) keys files /\ tsd_view c1 (ts_e c1 off) (wfs (s_w x2)) keys files
  /\ pending x1 = [] /\ pending x2 = [].
Proof.
  intros Hm H1 T1 Hb Htk Hlo Hhi Hmax. cbn zeta.
  pose proof (tsdmcfg_mode c1 c2 _ Hm H1) as H2. pose proof (same_mode_tag_ok c1 c2 Hm T1) as T2.
  pose proof (same_mode_ts_e c1 c2 off Hm) as Ee.
  destruct (tsd_flush_durable c1 (CSize m) t0 off ops H1 T1 Hb Htk Hlo Hhi Hmax) as [k1 [f1 [V1 [_ [_ [_ [P1 Z1]]]]]]].
  destruct (tsd_flush_durable c2 (CSize m) t0 off ops H2 T2 Hb Htk ltac:(rewrite <- Ee; exact Hlo) ltac:(rewrite <- Ee; exact Hhi) Hmax)
    as [k2 [f2 [V2 [_ [_ [_ [P2 Z2]]]]]]].
  cbn zeta in *. destruct (Z1 m eq_refl) as [-> ->]. destruct (Z2 m eq_refl) as [-> ->].
  split; [exact V1|]. split; [|split; assumption].
  rewrite Ee. apply (same_mode_tsd_view c2 c1); [apply same_but_mode_sym; exact Hm | exact V2].
Qed.

(* ------------------------------------------------------------------ the asynchronous mode, spelled out *)
(* the stream: any criterion *)
Theorem async_tsd_stream c crit t0 off ops :
  tsdacfg c crit -> tag_ok c -> Forall basic_op ops -> Forall tick_ok ops ->
  (0 <= t0 + ts_e c off)%Z -> (t0 + elapsed ops + ts_e c off < sec_max)%Z -> (N.of_nat (length ops) <= usize_max)%N ->
  exists keys files,
    tsd_view c (ts_e c off) (wfs (s_w (fst (run (sys0 t0 off) (OStart c :: ops ++ [OStop]))))) keys files
    /\ concat files = written ops /\ keys_ok keys
    /\ (forall k, In k keys -> (t0 <= fst k <= t0 + elapsed ops)%Z).
Proof.
  intros [Hcfg _] T Hb Htk Hlo Hhi Hmax.
  destruct (tsd_stop_durable c crit t0 off ops Hcfg T Hb Htk Hlo Hhi Hmax) as [keys [files [V [F [K [Rg _]]]]]].
  exists keys, files. auto.
Qed.

(* size criterion: the greedy partition, under the names of tsd_keys *)
Theorem async_tsd_partition c m t0 off ops :
  tsdacfg c (CSize m) -> tag_ok c -> Forall basic_op ops -> Forall tick_ok ops ->
  (0 <= t0 + ts_e c off)%Z -> (t0 + elapsed ops + ts_e c off < sec_max)%Z -> (N.of_nat (length ops) <= usize_max)%N ->
  tsd_view c (ts_e c off) (wfs (s_w (fst (run (sys0 t0 off) (OStart c :: ops ++ [OStop]))))) (tsd_keys m t0 ops)
           (expected_files m None (items false ops))
  /\ keys_ok (tsd_keys m t0 ops) /\ (forall k, In k (tsd_keys m t0 ops) -> (t0 <= fst k <= t0 + elapsed ops)%Z).
Proof.
  intros [Hcfg _] T Hb Htk Hlo Hhi Hmax.
  destruct (tsd_stop_durable c (CSize m) t0 off ops Hcfg T Hb Htk Hlo Hhi Hmax) as [keys [files [V [F [K [Rg [_ [_ Z]]]]]]]].
  destruct (Z m eq_refl) as [-> ->]. auto.
Qed.

(* what the caller of an asynchronous writer observes: every operation except a snapshot returns "ok, no rotation" - also
   the writes at which the writer thread rotates; after the drop there is no writer, the thread is gone, nothing is pending *)
Theorem async_tsd_observations c crit t0 off ops :
  tsdacfg c crit -> tag_ok c -> Forall basic_op ops -> Forall tick_ok ops ->
  (0 <= t0 + ts_e c off)%Z -> (t0 + elapsed ops + ts_e c off < sec_max)%Z -> (N.of_nat (length ops) <= usize_max)%N ->
  let r := run (sys0 t0 off) (OStart c :: ops ++ [OStop]) in
  Forall2 aobs (OStart c :: ops ++ [OStop]) (snd r)
  /\ s_flw (fst r) = None /\ s_dead (fst r) = true /\ pending (fst r) = [].
Proof.
  intros [Hcfg Ha] T Hb Htk Hlo Hhi Hmax. cbn zeta.
  destruct (tsd_ok_sync_of c crit t0 off ops Hcfg T Hb Htk Hlo Hhi Hmax) as [K Q].
  destruct (async_transfer c t0 off ops Ha Hb K Q) as [_ [_ [Fa [Da O]]]].
  split; [exact O|]. split; [exact Fa|]. split; [exact Da | exact (pending_none _ Fa)].
Qed.

(* flush: as tsd_flush_durable, and the writer thread is still running *)
Theorem async_tsd_flush_durable c crit t0 off ops :
  tsdacfg c crit -> tag_ok c -> Forall basic_op ops -> Forall tick_ok ops ->
  (0 <= t0 + ts_e c off)%Z -> (t0 + elapsed ops + ts_e c off < sec_max)%Z -> (N.of_nat (S (length ops)) <= usize_max)%N ->
  let x := fst (run (sys0 t0 off) (OStart c :: ops ++ [OFlush])) in
  exists keys files,
    tsd_view c (ts_e c off) (wfs (s_w x)) keys files /\ concat files = written ops
    /\ keys_ok keys /\ (forall k, In k keys -> (t0 <= fst k <= t0 + elapsed ops)%Z)
    /\ pending x = [] /\ s_dead x = false
    /\ (forall m, crit = CSize m -> files = expected_files m None (items false ops) /\ keys = tsd_keys m t0 ops).
Proof.
  intros [Hcfg Ha] T Hb Htk Hlo Hhi Hmax. cbn zeta.
  destruct (tsd_flush_durable c crit t0 off ops Hcfg T Hb Htk Hlo Hhi Hmax) as [keys [files [V [F [K [Rg [P Z]]]]]]]. cbn zeta in *.
  exists keys, files. split; [exact V|]. split; [exact F|]. split; [exact K|]. split; [exact Rg|]. split; [exact P|]. split; [|exact Z].
  assert (Hmax' : (N.of_nat (length (ops ++ [OFlush])) <= usize_max)%N) by (rewrite app_length; cbn [length]; lia).
  destruct (tsd_ok_sync_of c crit t0 off (ops ++ [OFlush]) Hcfg T (basic_snoc_flush ops Hb) (ticks_snoc_flush ops Htk) Hlo
              ltac:(rewrite elapsed_snoc_flush; exact Hhi) Hmax') as [K' Q'].
  destruct (async_transfer c t0 off (ops ++ [OFlush]) Ha (basic_snoc_flush ops Hb) K' Q') as [S _]. apply S.
Qed.

(* drop: as tsd_stop_durable, and the writer thread has ended *)
Theorem async_tsd_stop_durable c crit t0 off ops :
  tsdacfg c crit -> tag_ok c -> Forall basic_op ops -> Forall tick_ok ops ->
  (0 <= t0 + ts_e c off)%Z -> (t0 + elapsed ops + ts_e c off < sec_max)%Z -> (N.of_nat (length ops) <= usize_max)%N ->
  let x := fst (run (sys0 t0 off) (OStart c :: ops ++ [OStop])) in
  exists keys files,
    tsd_view c (ts_e c off) (wfs (s_w x)) keys files /\ concat files = written ops
    /\ keys_ok keys /\ (forall k, In k keys -> (t0 <= fst k <= t0 + elapsed ops)%Z)
    /\ pending x = [] /\ s_flw x = None /\ s_dead x = true
    /\ (forall m, crit = CSize m -> files = expected_files m None (items false ops) /\ keys = tsd_keys m t0 ops).
Proof.
  intros [Hcfg Ha] T Hb Htk Hlo Hhi Hmax. cbn zeta.
  destruct (tsd_stop_durable c crit t0 off ops Hcfg T Hb Htk Hlo Hhi Hmax) as [keys [files [V [F [K [Rg [P [Fl Z]]]]]]]]. cbn zeta in *.
  exists keys, files. split; [exact V|]. split; [exact F|]. split; [exact K|]. split; [exact Rg|]. split; [exact P|]. split; [exact Fl|].
  split; [|exact Z]. apply (async_tsd_observations c crit t0 off ops (conj Hcfg Ha) T Hb Htk Hlo Hhi Hmax).
Qed.

(* the asynchronous writer and the synchronous writer of the same capacity go through the very same worlds (file system,
   clock, error channel), with and without the final drop - ANY criterion; the caller's observations differ in the rotation
   flag only, which the asynchronous caller never sees *)
Theorem async_tsd_worlds c crit t0 off ops :
  tsdacfg c crit -> tag_ok c -> Forall basic_op ops -> Forall tick_ok ops ->
  (0 <= t0 + ts_e c off)%Z -> (t0 + elapsed ops + ts_e c off < sec_max)%Z -> (N.of_nat (length ops) <= usize_max)%N ->
  let ra := run (sys0 t0 off) (OStart c :: ops) in
  let rs := run (sys0 t0 off) (OStart (sync_of c) :: ops) in
  let ra' := run (sys0 t0 off) (OStart c :: ops ++ [OStop]) in
  let rs' := run (sys0 t0 off) (OStart (sync_of c) :: ops ++ [OStop]) in
  s_w (fst ra) = s_w (fst rs) /\ snd ra = List.map no_rot (snd rs)
  /\ s_w (fst ra') = s_w (fst rs') /\ snd ra' = List.map no_rot (snd rs').
Proof.
  intros [Hcfg Ha] T Hb Htk Hlo Hhi Hmax.
  exact (async_worlds c t0 off ops Ha Hb (tsd_ok_sync_of c crit t0 off ops Hcfg T Hb Htk Hlo Hhi Hmax)).
Qed.

Print Assumptions tsd_stop_durable.
Print Assumptions tsd_flush_durable.
Print Assumptions tsd_modes.
Print Assumptions tsd_modes_flushed.
Print Assumptions async_tsd_stream.
Print Assumptions async_tsd_partition.
Print Assumptions async_tsd_observations.
Print Assumptions async_tsd_flush_durable.
Print Assumptions async_tsd_stop_durable.
Print Assumptions async_tsd_worlds.

(* ------------------------------------------------------------------ "the same directory", literally *)
Lemma tsd_view_same_dir c e f1 f2 keys files : tsd_view c e f1 keys files -> tsd_view c e f2 keys files ->
  same_dir f1 f2 /\ snap_list f1 = snap_list f2.
Proof.
  intros [_ [A1 [B1 N1]]] [_ [A2 [B2 N2]]].
  assert (S : same_dir f1 f2).
  { apply (same_dir_of_entries f1 f2 (fun i => kname c e (nth i keys kd)) (fun i => nth i files []) (length files)); assumption. }
  split; [exact S | apply same_dir_snap; assumption].
Qed.

(* C15 once more: the two final directories are the same map from names to files (kind, content), and the snapshots -
   names in sorted order with kind and content - are equal *)
Theorem tsd_modes_same_dir c1 c2 m t0 off ops :
  same_but_mode c1 c2 -> tsdmcfg c1 (CSize m) -> tag_ok c1 -> Forall basic_op ops -> Forall tick_ok ops ->
  (0 <= t0 + ts_e c1 off)%Z -> (t0 + elapsed ops + ts_e c1 off < sec_max)%Z -> (N.of_nat (length ops) <= usize_max)%N ->
  let x1 := fst (run (sys0 t0 off) (OStart c1 :: ops ++ [OStop])) in
  let x2 := fst (run (sys0 t0 off) (OStart c2 :: ops ++ [OStop])) in
  same_dir (wfs (s_w x1)) (wfs (s_w x2)) /\ snap_of x1 = snap_of x2.
Proof.
  intros Hm H1 T1 Hb Htk Hlo Hhi Hmax. cbn zeta.
  destruct (tsd_modes c1 c2 m t0 off ops Hm H1 T1 Hb Htk Hlo Hhi Hmax) as [V1 [V2 _]]. cbn zeta in *.
  rewrite !snap_of_list. exact (tsd_view_same_dir c1 _ _ _ _ _ V1 V2).
Qed.
Print Assumptions tsd_modes_same_dir.

(* ------------------------------------------------------------------ examples *)
Section Examples.
Open Scope string_scope.
(* app_r<time stamp>[.restart-NNNN].log, rotation when the current file holds more than 3 bytes *)
Definition extm (cap : option nat) (async : bool) : config := with_mode (tsd_cfg (ex_sp "log") false (CSize 3) None false) cap async.
Definition extm_direct := extm None false.
Definition extm_buffered := extm (Some 4%nat) false.
Definition extm_async := extm (Some 4%nat) true.        (* the writer thread writes through a BufWriter of 4 bytes *)
Definition extm_async_unbuffered := extm None true.

(* a trigger before the first record, a rotation by size in second 3, a trigger in the same second, a rotation by size in
   second 5 *)
Definition extm_hist : list op :=
  [OTrigger; OWrite (bs "abcd"); OTick 3; OWrite (bs "ef"); OSnap; OFlush; OSnap; OTrigger; OPlain (bs "g"); OWrite (bs "hijkl");
   OTick 2; OWrite (bs "m")].

Lemma extm_hist_basic : Forall basic_op extm_hist.
Proof. repeat constructor. Qed.
Lemma extm_hist_ticks : Forall tick_ok extm_hist.
Proof. repeat (apply Forall_cons; [cbn [tick_ok]; first [exact Logic.I | lia]|]). apply Forall_nil. Qed.
Lemma extm_tag_ok cap async : tag_ok (extm cap async).
Proof. apply tag_free_ok. split; vm_compute; reflexivity. Qed.

(* the hypotheses are satisfiable *)
Example extm_hyps :
  tsdcfg extm_direct (CSize 3) /\ tsdcfg extm_buffered (CSize 3) /\ tsdacfg extm_async (CSize 3)
  /\ tsdacfg extm_async_unbuffered (CSize 3)
  /\ same_but_mode extm_direct extm_buffered /\ same_but_mode extm_direct extm_async /\ same_but_mode extm_buffered extm_async_unbuffered
  /\ (0 <= 0 + ts_e extm_direct 0)%Z /\ (0 + elapsed extm_hist + ts_e extm_direct 0 < sec_max)%Z
  /\ (N.of_nat (S (length extm_hist)) <= usize_max)%N.
Proof.
  repeat split; try discriminate.
Qed.

Definition extm_dir : list (bytes * N * bytes) :=
  [ (bs "app_r1970-01-01_00-00-00.log", 0%N, bs "abcd"); (bs "app_r1970-01-01_00-00-03.log", 0%N, bs "ef");
    (bs "app_r1970-01-01_00-00-03.restart-0000.log", 0%N, bs "ghijkl"); (bs "app_r1970-01-01_00-00-05.log", 0%N, bs "m") ].

(* the directory after the history and the drop of the writer: the same in the four modes *)
Example extm_dir_direct : snap_of (fst (run (sys0 0 0) (OStart extm_direct :: extm_hist ++ [OStop]))) = extm_dir.
Proof. vm_compute. reflexivity. Qed.
Example extm_dir_buffered : snap_of (fst (run (sys0 0 0) (OStart extm_buffered :: extm_hist ++ [OStop]))) = extm_dir.
Proof. vm_compute. reflexivity. Qed.
Example extm_dir_async : snap_of (fst (run (sys0 0 0) (OStart extm_async :: extm_hist ++ [OStop]))) = extm_dir.
Proof. vm_compute. reflexivity. Qed.
Example extm_dir_async_unbuffered : snap_of (fst (run (sys0 0 0) (OStart extm_async_unbuffered :: extm_hist ++ [OStop]))) = extm_dir.
Proof. vm_compute. reflexivity. Qed.

(* the keys and the contents as the theorems have them: functions of the history and the clock *)
Example extm_keys : tsd_keys 3 0 extm_hist = [(0%Z, 0); (3%Z, 0); (3%Z, 1); (5%Z, 0)]
  /\ expected_files 3 None (items false extm_hist) = [bs "abcd"; bs "ef"; bs "ghijkl"; bs "m"]
  /\ List.map (kname extm_direct 0) (tsd_keys 3 0 extm_hist) = List.map (fun x : bytes * N * bytes => fst (fst x)) extm_dir.
Proof. vm_compute. repeat split; reflexivity. Qed.

(* instance of tsd_modes: Direct against asynchronous-buffered *)
Example extm_modes_instance :
  let f1 := wfs (s_w (fst (run (sys0 0 0) (OStart extm_direct :: extm_hist ++ [OStop])))) in
  let f2 := wfs (s_w (fst (run (sys0 0 0) (OStart extm_async :: extm_hist ++ [OStop])))) in
  tsd_view extm_direct 0 f1 [(0%Z, 0); (3%Z, 0); (3%Z, 1); (5%Z, 0)] [bs "abcd"; bs "ef"; bs "ghijkl"; bs "m"]
  /\ tsd_view extm_direct 0 f2 [(0%Z, 0); (3%Z, 0); (3%Z, 1); (5%Z, 0)] [bs "abcd"; bs "ef"; bs "ghijkl"; bs "m"].
Proof.
  destruct (tsd_modes extm_direct extm_async 3 0 0 extm_hist) as [V1 [V2 _]];
    [repeat split | repeat split | apply extm_tag_ok | exact extm_hist_basic | exact extm_hist_ticks
     | change (0 <= 0)%Z; lia | change (5 < sec_max)%Z; unfold sec_max; lia | vm_compute; discriminate |].
  cbn zeta in *. destruct extm_keys as [Ek [Ef _]]. rewrite Ek, Ef in V1, V2. split; [exact V1 | exact V2].
Qed.

(* the snapshots before and after the flush: with a BufWriter of 4 bytes the record "ef" is still pending at the first
   one - in buffered and in asynchronous mode alike - and on the disk at the second, in every mode; the file of second 3
   exists in both *)
Definition extm_snap (cur : bytes) : obs :=
  ObsSnap [(bs "app_r1970-01-01_00-00-00.log", 0%N, bs "abcd"); (bs "app_r1970-01-01_00-00-03.log", 0%N, cur)] None [].
Example extm_snaps_direct : snaps extm_direct extm_hist = [extm_snap (bs "ef"); extm_snap (bs "ef")].
Proof. vm_compute. reflexivity. Qed.
Example extm_snaps_buffered : snaps extm_buffered extm_hist = [extm_snap (bs ""); extm_snap (bs "ef")].
Proof. vm_compute. reflexivity. Qed.
Example extm_snaps_async : snaps extm_async extm_hist = [extm_snap (bs ""); extm_snap (bs "ef")].
Proof. vm_compute. reflexivity. Qed.
Example extm_snaps_async_unbuffered : snaps extm_async_unbuffered extm_hist = [extm_snap (bs "ef"); extm_snap (bs "ef")].
Proof. vm_compute. reflexivity. Qed.

(* the rotation flags: the synchronous caller sees the rotations at the writes of "ef" and of "m", the asynchronous never *)
Example extm_flags_buffered : rots_seen extm_buffered extm_hist
  = [false; false; false; false; true; false; false; false; false; false; false; false; true; false]%bool.
Proof. vm_compute. reflexivity. Qed.
Example extm_flags_async : rots_seen extm_async extm_hist
  = [false; false; false; false; false; false; false; false; false; false; false; false; false; false]%bool.
Proof. vm_compute. reflexivity. Qed.

(* instance of async_tsd_flush_durable: the prefix of the history up to the record "ef", then a flush *)
Example extm_flush_instance :
  let x := fst (run (sys0 0 0) (OStart extm_async :: [OTrigger; OWrite (bs "abcd"); OTick 3; OWrite (bs "ef")] ++ [OFlush])) in
  tsd_view extm_async 0 (wfs (s_w x)) [(0%Z, 0); (3%Z, 0)] [bs "abcd"; bs "ef"] /\ pending x = [] /\ s_dead x = false.
Proof.
  destruct (async_tsd_flush_durable extm_async (CSize 3) 0 0 [OTrigger; OWrite (bs "abcd"); OTick 3; OWrite (bs "ef")])
    as [keys [files [V [_ [_ [_ [P [D Z]]]]]]]];
    [repeat split | apply extm_tag_ok | repeat constructor
     | repeat (apply Forall_cons; [cbn [tick_ok]; first [exact Logic.I | lia]|]); apply Forall_nil
     | change (0 <= 0)%Z; lia | change (3 < sec_max)%Z; unfold sec_max; lia | vm_compute; discriminate |].
  cbn zeta in *. destruct (Z 3%N eq_refl) as [-> ->]. split; [exact V | split; [exact P | exact D]].
Qed.

(* NOT covered by tsd_modes (size criterion only): an age criterion, use_utc with a zone offset of two hours.  The rotation
   decision depends on the clock and on the creation time of the current file, not on the buffer; the four modes agree on this
   history (computed) *)
Definition extm_age (cap : option nat) (async : bool) : config := with_mode (tsd_cfg ext_sp2 true (CAge ADay) None true) cap async.
Example extm_age_modes_agree :
  let dir c := snap_of (fst (run (sys0 1700000000 7200) (OStart c :: ext_ops2 ++ [OStop]))) in
  dir (extm_age None false) = [ (bs "srv_a1_r2023-11-14_22-13-20", 0%N, bs "x"); (bs "srv_a1_r2023-11-15_23-13-20", 0%N, bs "yz") ]
  /\ dir (extm_age (Some 100%nat) false) = dir (extm_age None false)
  /\ dir (extm_age (Some 100%nat) true) = dir (extm_age None false)
  /\ dir (extm_age None true) = dir (extm_age None false).
Proof. vm_compute. repeat split; reflexivity. Qed.
End Examples.
