(* Files that are not members of the logger's file family are ignored, Timestamps naming (rCURRENT and
   r<time stamp>[.restart-NNNN]): a run in a directory that holds foreign files is, step by step, the embedding
   (ForeignFs.embed) of the run in the empty directory.

   - foreign name: the family test of the model rejects it (TsForeignFacts.ts_member c n = false): it is not the current
     file, and the listing extracts no infix from it, or an infix that the time-stamp filter (r%Y-%m-%d_%H-%M-%S as chrono
     parses it) does not accept - as a plain file, as an archive, and with ".gz" removed.  Examples: a_rXYZ.log, a_r1.log,
     a_rCURRENT.txt, a_rCURRENT.log.gz, a_r1970-01-01_00-00-00.log.bak are foreign, and so are the names with a number infix
     or something like it: a_r00001.log, a_r1x.log (number_infix_foreign_t; before the repair of the number filter and of
     latest_timestamp_file the family test of the time-stamp namings had to accept them), and the names that only a lenient
     parser reads as a time stamp: a_r1970-1-1_0-0-0.log; a_rCURRENT.log, a_r1999-01-01_00-00-00.log are not (member_files_t: what the model does with them: the restart
     counter, the stranger's rCURRENT file, the cleanup).
   - timestamps_foreign_ignored: every criterion, every history OStart c :: ops ++ [OStop] of basic operations with a clock
     that does not run backwards (snapshots included), with or without append, any buffer capacity, use_utc either way.
   - timestamps_stream_foreign: timestamps_stream carries over.
   The embedding lemmas (sections NamesT, CfgTK) hold for every world, faults and kills included, as long as the dates that name
   the closed files are of the years 1970..9999. *)
Require Import FL.Flw.WorldPar.
Require Import FL.Base.Bytes FL.Base.BytesFacts FL.Base.PathName FL.Fs.Fs FL.Fs.FsFacts FL.Time.Civil FL.Time.TsFormat
  FL.Names.FileSpec FL.Names.NamesFacts FL.Names.SortFacts FL.Names.FamilyFacts
  FL.Flw.Model FL.Flw.ModelFacts FL.Flw.NumFs FL.Flw.NumInv FL.Flw.Run FL.Flw.RunFacts FL.Flw.NumRun FL.Flw.NumTheorems
  FL.Flw.NumListing FL.Flw.CleanupFacts
  FL.Flw.TsCal FL.Flw.TsTime FL.Flw.TsMono FL.Flw.TsNames FL.Flw.TsInv FL.Flw.TsRun FL.Flw.TsTheorems FL.Flw.TsParse
  FL.Flw.ForeignFs FL.Flw.ForeignSort FL.Flw.ForeignModel FL.Flw.NumForeign FL.Flw.TsForeignFacts FL.Oracles.O_Flw.
From Coq Require Import ZifyN ZifyNat ZifyBool.
Open Scope nat_scope.

Section NamesT.
Variable fn : list (bytes * nat).
Variable fi : list file.
Variable c : config.
Hypothesis Hts : fts (c_spec c) = false.
Hypothesis Hforeign : forall n, In n (fnames fn) -> ts_member c n = false.
Notation fnm := (fnames fn).
Notation embw := (embedw fn fi).

Lemma foreign_td n : In n fnm -> tsd_member c n = false.
Proof. intros H. apply Hforeign in H. unfold ts_member in H. apply orb_false_iff in H. apply H. Qed.

Lemma cname_own_t : ~ In (cname c) fnm.
Proof. intros H. apply Hforeign in H. unfold ts_member in H. rewrite beq_refl, orb_true_r in H. discriminate. Qed.

Lemma cur_name_own w : ~ In (name_of c w (Some cur_infix)) fnm.
Proof. rewrite (name_of_nm c Hts). exact cname_own_t. Qed.

(* timestamps::creation_timestamp_of_currentfile: when it rotates, the date that names the closed file must be one of the
   years 1970..9999 *)
Lemma creation_ts_embed w rotate o_date :
  (rotate = true -> in_years (eoff c w) (match o_date with Some d => d | None => birth_or_now w (cname c) end)) ->
  creation_ts_of_current c (embw w) cur_infix rotate o_date std_fmt
  = lw fn fi (creation_ts_of_current c w cur_infix rotate o_date std_fmt).
Proof.
  intros HY. unfold creation_ts_of_current. rewrite !name_of_embed.
  rewrite (birth_or_now_embed fn fi) by apply cur_name_own.
  destruct rotate; [|reflexivity]. specialize (HY eq_refl).
  rewrite (infix_from_ts_embed fn fi c).
  set (date := match o_date with Some d => d | None => birth_or_now w (name_of c w (Some cur_infix)) end).
  assert (Yd : in_years (eoff c w) date).
  { unfold date. rewrite (name_of_nm c Hts). exact HY. }
  destruct (infix_ok c w date Yd) as [Hl Hd].
  rewrite (collision_free_embed fn fi c Hts foreign_td) by assumption.
  destruct (collision_free c w (infix_from_ts c w std_fmt date)) as [r w1] eqn:Ec.
  destruct r as [i| |]; cbn [lw fst snd]; [|reflexivity|reflexivity].
  assert (Hn : ~ In (name_of c w1 (Some i)) fnm) by (eapply (collision_free_name_own fn c Hts foreign_td); eassumption).
  rewrite !name_of_embed. rewrite (p_rename_embed fn fi) by (try exact Hn; apply cur_name_own).
  destruct (p_rename w1 (name_of c w (Some cur_infix)) (name_of c w1 (Some i))) as [rr w2]. cbn [lw fst snd].
  rewrite (birth_or_now_embed fn fi) by apply cur_name_own. destruct rr; reflexivity.
Qed.

(* the naming step of the initialisation: without append a current file that is found is renamed by the time of its
   creation *)
Lemma init_naming_embed_t w : (c_append c = false -> in_years (eoff c w) (birth_or_now w (cname c))) ->
  init_naming c (embw w) NTimestamps = lw fn fi (init_naming c w NTimestamps).
Proof.
  intros HY. unfold init_naming.
  rewrite creation_ts_embed by (intros E; apply HY; destruct (c_append c); [discriminate | reflexivity]).
  destruct (creation_ts_of_current c w cur_infix (negb (c_append c)) None std_fmt) as [[ts| |] w1]; reflexivity.
Qed.

Lemma init_naming_t_shape w ns infix w1 : init_naming c w NTimestamps = (Ok (ns, infix), w1) ->
  (exists ts, ns = NSTs ts (Some cur_infix) std_fmt) /\ infix = cur_infix.
Proof.
  unfold init_naming.
  destruct (creation_ts_of_current c w cur_infix (negb (c_append c)) None std_fmt) as [[ts| |] w0]; cbn [bind]; try discriminate.
  intros E. injection E as <- <- _. eauto.
Qed.
End NamesT.

(* Timestamps naming with cleanup strategy kc, no start-time part in the names, no symlink; with a cleanup: the suffix is
   not "gz" *)
Section CfgTK.
Variable fn : list (bytes * nat).
Variable fi : list file.
Variable c : config.
Variable crit : criterion.
Variable kc : cleanup.
Hypothesis Hrot : c_rot c = Some (crit, NTimestamps, kc).
Hypothesis Hts : fts (c_spec c) = false.
Hypothesis Hlink : c_symlink c = false.
Hypothesis Hk : kc = KNever \/ fsfx (c_spec c) <> Some gz_sfx.
Hypothesis Hforeign : forall n, In n (fnames fn) -> ts_member c n = false.
Notation fnm := (fnames fn).
Notation embw := (embedw fn fi).

Lemma cleanup_impl_embed_sk w cur :
  cleanup_impl c (embw w) kc (IFTs std_fmt) cur = lw fn fi (cleanup_impl c w kc (IFTs std_fmt) cur).
Proof. exact (cleanup_impl_embed_ts fn fi c Hts (foreign_td fn c Hforeign) w kc cur Hk). Qed.

(* the states of a writer with Timestamps naming and the cleanup strategy kc; the date that names the next closed file
   is one of the years 1970..9999 *)
Definition good_inner_sk (w : world) : inner -> Prop :=
  rot_kind (fun ns => exists ts, ns = NSTs ts (Some cur_infix) std_fmt /\ in_years (eoff c w) ts) (fun k _ => k = kc).

Lemma mount_next_embed_sk w st force : good_inner_sk w st ->
  mount_next c (embw w) (shin fi st) force = lm fn fi (mount_next c w st force).
Proof.
  intros G. apply (mount_next_embed_gen fn fi c w st force Hlink). intros rs wr p ->.
  destruct G as [[ts [En Y]] Ek]. rewrite En, Ek. cbn [next_naming]. split.
  - rewrite (creation_ts_embed fn fi c Hts Hforeign) by (intros _; exact Y).
    destruct (creation_ts_of_current c w cur_infix true (Some ts) std_fmt) as [[ts'| |] w1]; reflexivity.
  - intros infix w1 ns1. destruct (creation_ts_of_current c w cur_infix true (Some ts) std_fmt) as [[ts'| |] w0]; try discriminate.
    intros E. injection E as <- <- <-. split; [apply (cur_name_own fn c Hts Hforeign)|].
    intros w' cur. apply cleanup_impl_embed_sk.
Qed.

Lemma initialize_embed_sk w :
  (c_append c = false -> in_years (eoff c w) (birth_or_now w (cname c))) ->
  initialize c (embw w) = (shres fi (fst (initialize c w)), embw (snd (initialize c w))).
Proof.
  intros HY. apply (initialize_embed_gen fn fi c crit NTimestamps kc w Hlink Hrot).
  - apply init_naming_embed_t; assumption.
  - intros ns infix w1 E. destruct (init_naming_t_shape c w ns infix w1 E) as [[ts ->] ->].
    split; [apply (cur_name_own fn c Hts Hforeign)|]. intros w' cur. apply cleanup_impl_embed_sk.
Qed.
End CfgTK.

(* without cleanup *)
Section CfgT.
Variable fn : list (bytes * nat).
Variable fi : list file.
Variable c : config.
Variable crit : criterion.
Hypothesis Hrot : c_rot c = Some (crit, NTimestamps, KNever).
Hypothesis Hts : fts (c_spec c) = false.
Hypothesis Hlink : c_symlink c = false.
Hypothesis Hforeign : forall n, In n (fnames fn) -> ts_member c n = false.
Notation fnm := (fnames fn).
Notation embw := (embedw fn fi).

Definition good_inner_t (w : world) (st : inner) : Prop :=
  match st with
  | Active (Some rs) _ _ => (exists ts, rs_naming rs = NSTs ts (Some cur_infix) std_fmt /\ in_years (eoff c w) ts) /\ rs_cleanup rs = KNever
  | _ => True
  end.

Lemma mount_next_embed_t w st force : good_inner_t w st ->
  mount_next c (embw w) (shin fi st) force = lm fn fi (mount_next c w st force).
Proof. exact (mount_next_embed_sk fn fi c KNever Hts Hlink (or_introl eq_refl) Hforeign w st force). Qed.

Lemma initialize_embed_t w :
  (c_append c = false -> in_years (eoff c w) (birth_or_now w (cname c))) ->
  initialize c (embw w) = (shres fi (fst (initialize c w)), embw (snd (initialize c w))).
Proof. exact (initialize_embed_sk fn fi c crit KNever Hrot Hts Hlink (or_introl eq_refl) Hforeign w). Qed.
End CfgT.

(* ------------------------------------------------------------------ the states of the run in the clean directory *)
Section RunT.
Variable fn : list (bytes * nat).
Variable fi : list file.
Variable c : config.
Variable crit : criterion.
Variables e lo hi : Z.
Hypothesis Hcfg : tscfg c crit.
Hypothesis Hyears : years_ok e lo hi.
Hypothesis Hforeign : forall n, In n (fnames fn) -> ts_member c n = false.

Definition good_t (x : sys) : Prop := (exists a n, RelT c e lo n x a) /\ (wnow (s_w x) <= hi)%Z.

Lemma good_t_cfg x s : good_t x -> s_flw x = Some s -> f_cfg s = c /\ f_poisoned s = false.
Proof.
  intros [[a [n [_ [_ R]]]] _] Es. destruct a as [[closed cur]|].
  - destruct R as [keys [wr [roll [ts [E _]]]]]. rewrite E in Es. injection Es as <-. split; reflexivity.
  - destruct R as [E _]. rewrite E in Es. injection Es as <-. split; reflexivity.
Qed.

Lemma good_t_inner x s : good_t x -> s_flw x = Some s -> good_inner_t c (s_w x) (f_inner s).
Proof.
  intros [[a [n [_ [_ R]]]] Hhi] Es. destruct a as [[closed cur]|].
  - destruct R as [keys [wr [roll [ts [E [I _]]]]]]. rewrite E in Es. injection Es as <-. cbn.
    split; [|reflexivity]. exists ts. split; [reflexivity|]. rewrite (ti_off _ _ _ _ _ _ _ _ I).
    apply (years_in e lo hi); [exact Hyears|]. pose proof (ti_ts _ _ _ _ _ _ _ _ I). lia.
  - destruct R as [E _]. rewrite E in Es. injection Es as <-. exact Logic.I.
Qed.

Lemma mount_next_embed_good_t x s : good_t x -> s_flw x = Some s ->
  mount_next c (embedw fn fi (s_w x)) (shin fi (f_inner s)) true = lm fn fi (mount_next c (s_w x) (f_inner s) true).
Proof.
  intros G Es. destruct Hcfg as [Hrot [Hts [Hlink _]]].
  apply (mount_next_embed_t fn fi c Hts Hlink Hforeign). eapply good_t_inner; eassumption.
Qed.

Lemma write_buffer_embed_good_t x s b : good_t x -> s_flw x = Some s ->
  write_buffer (embeds fi s) (embedw fn fi (s_w x)) b = lwb fn fi (write_buffer s (s_w x) b).
Proof.
  intros G Es. pose proof Hcfg as [Hrot [Hts [Hlink _]]].
  pose proof (good_t_inner x s G Es) as Gi. destruct (good_t_cfg x s G Es) as [Ec _].
  destruct G as [[a [n [_ [_ R]]]] Hhi].
  apply (write_buffer_embed_pt fn fi c); [exact Ec | |].
  - (* a new writer: the directory of the clean run is empty, there is no current file, the clock is read *)
    intros Hi. destruct a as [[closed cur]|].
    + destruct R as [keys [wr [roll [ts [E _]]]]]. rewrite E in Es. injection Es as <-. discriminate Hi.
    + destruct R as [_ [Q [Hn [_ [Hoff Hlo]]]]]. apply (initialize_embed_t fn fi c crit Hrot Hts Hlink Hforeign).
      intros _. unfold birth_or_now, file_of. rewrite lookup_empty by exact Hn. rewrite Hoff.
      apply (years_in e lo hi); [exact Hyears | lia].
  - intros w0 st0 H0. destruct a as [[closed cur]|].
    + destruct R as [keys [wr [roll [ts [E _]]]]]. rewrite E in Es. injection Es as <-. cbn [st_ts f_inner] in H0.
      injection H0 as <- <-. apply (mount_next_embed_t fn fi c Hts Hlink Hforeign). exact Gi.
    + destruct R as [E [Q [Hn [Hi [Hoff Hlo]]]]]. rewrite E in Es. injection Es as <-. cbn [new_flw f_inner] in H0.
      destruct (initialize_empty_ts c crit e lo (s_w x) Hcfg Q Hn Hi Hoff Hlo) as [w1 [wr [roll [Ei [_ [_ S1]]]]]].
      rewrite Ei in H0. injection H0 as <- <-.
      apply (mount_next_embed_t fn fi c Hts Hlink Hforeign). cbn. split; [|reflexivity].
      exists (wnow (s_w x)). split; [reflexivity|]. rewrite (eoff_same_env c _ _ S1), Hoff.
      apply (years_in e lo hi); [exact Hyears | lia].
Qed.

(* the directory of such a state holds no foreign name *)
Lemma good_t_fam x : good_t x -> fam_g fn good_t x.
Proof.
  intros G. split; [exact G|]. destruct G as [[a [n [_ [_ R]]]] Hhi].
  intros nme Hn. destruct a as [[closed cur]|].
  - destruct R as [keys [wr [roll [ts [_ [I _]]]]]]. apply dir_names_lookup in Hn. destruct Hn as [j Hj].
    destruct (ti_only _ _ _ _ _ _ _ _ I nme j Hj) as [->|[i [Hi ->]]]; [exact (cname_own_t fn c Hforeign)|].
    apply (kname_own fn c (foreign_td fn c Hforeign)). apply (years_in e lo hi); [exact Hyears|].
    assert (Ik : In (nth i keys kd) keys) by (apply nth_In; rewrite (ti_len _ _ _ _ _ _ _ _ I); lia).
    pose proof (ti_range _ _ _ _ _ _ _ _ I _ Ik). pose proof (ti_ts _ _ _ _ _ _ _ _ I). lia.
  - destruct R as [_ [_ [E _]]]. unfold dir_names in Hn. rewrite E in Hn. destruct Hn.
Qed.
End RunT.

(* ------------------------------------------------------------------ the theorem *)
(* The foreign-name condition: the family test of the model (ts_member, TsForeignFacts.v) rejects the name. *)
Theorem timestamps_foreign_ignored c crit t0 off foreign ops :
  tscfg c crit -> tag_ok c -> Forall basic_op ops -> Forall tick_ok ops ->
  (0 <= t0 + ts_e c off)%Z -> (t0 + elapsed ops + ts_e c off < sec_max)%Z -> (N.of_nat (length ops) <= usize_max)%N ->
  NoDup (List.map fst foreign) ->
  (forall n, In n (List.map fst foreign) -> ts_member c n = false) ->
  let ops' := OStart c :: ops ++ [OStop] in
  let rf := run (sys0f t0 off foreign) ops' in
  let r0 := run (sys0 t0 off) ops' in
  (* 1: the same observations; a snapshot shows the foreign files in addition *)
  List.map (strip_obs (List.map fst foreign)) (snd rf) = snd r0
  /\ (Forall (fun o => o <> OSnap) ops -> snd rf = snd r0)
  (* 2: the foreign files are in place, unchanged *)
  /\ (forall n d, In (n, d) foreign -> file_of (wfs (s_w (fst rf))) n = Some (plain_file t0 d))
  (* 3: every other name is what the run in the empty directory makes of it *)
  /\ (forall n, ~ In n (List.map fst foreign) -> file_of (wfs (s_w (fst rf))) n = file_of (wfs (s_w (fst r0))) n)
  /\ (forall n, In n (List.map fst foreign) -> file_of (wfs (s_w (fst r0))) n = None)
  (* the whole state: the run is the embedding of the run in the empty directory *)
  /\ fst rf = embedx (names (fs0f t0 foreign)) (inodes (fs0f t0 foreign)) (fst r0).
Proof.
  intros Hcfg T Hb Htk Hlo Hhi Hmax ND Hfor. pose proof Hcfg as [Hrot [Hts [Hlink Hasync]]].
  pose proof (fs0f_names t0 foreign ND) as Hd.
  assert (Hforeign : forall n, In n (fnames (names (fs0f t0 foreign))) -> ts_member c n = false) by (rewrite Hd; exact Hfor).
  assert (Y : years_ok (ts_e c off) t0 (t0 + elapsed ops)) by (split; assumption).
  apply (foreign_ignored_g c (good_t c (ts_e c off) t0 (t0 + elapsed ops)) t0 off foreign ops Hts Hasync).
  - intros x s G Es. eapply good_t_cfg; eassumption.
  - intros x s b G Es. apply (write_buffer_embed_good_t _ _ c crit _ _ _ Hcfg Y Hforeign); assumption.
  - intros x s G Es. apply (mount_next_embed_good_t _ _ c crit _ _ _ Hcfg Y Hforeign); assumption.
  - exact Hb.
  - exact ND.
  - intros i. apply (good_t_fam _ c _ _ _ Y Hforeign).
    destruct (step (sys0 t0 off) (OStart c)) as [x0 ob0] eqn:E0.
    pose proof (start_rel_ts c t0 off) as R0. rewrite E0 in R0. cbn [fst] in *.
    assert (W0 : wnow (s_w x0) = t0) by (cbn in E0; injection E0 as <- _; reflexivity).
    pose proof (elapsed_firstn_le ops Htk i) as El. pose proof (firstn_length_le ops i) as Ll.
    pose proof (run_rel_ts c crit _ _ _ Hcfg T Y (firstn i ops) x0 None 0 R0 (Forall_firstn' _ _ i Hb) (Forall_firstn' _ _ i Htk)
                  ltac:(lia) ltac:(cbn [Nat.add]; lia)) as [R1 W1].
    split; [eauto | lia].
  - intros n Hn. rewrite <- Hd in Hn.
    destruct (timestamps_stream c crit t0 off ops Hcfg T Hb Htk Hlo Hhi Hmax) as [[He _]|[keys [cl [cu [[Hl [_ [_ [Hon _]]]] [_ [_ Rg]]]]]]].
    + apply lookup_empty. exact He.
    + destruct (lookup (wfs (s_w (fst (run (sys0 t0 off) (OStart c :: ops ++ [OStop]))))) n) as [j|] eqn:Ej; [exfalso|reflexivity].
      destruct (Hon n j Ej) as [->|[i [Hi ->]]]; [exact (cname_own_t _ c Hforeign Hn)|].
      revert Hn. apply (kname_own _ c (foreign_td _ c Hforeign)).
      apply (years_in _ _ _ _ Y). apply Rg. apply nth_In. lia.
Qed.
Print Assumptions timestamps_foreign_ignored.

(* ------------------------------------------------------------------ the stream of records *)
(* the family files of a directory that may hold other files, too: the closed files named by the keys, the current file,
   and no other name outside the foreign ones *)
Definition ts_view_family (c : config) (e : Z) (fnm : list bytes) (f : fs) (keys : list key) (closed : list bytes) (cur : bytes) : Prop :=
  length keys = length closed
  /\ (forall i, i < length closed ->
        exists fl, file_of f (kname c e (nth i keys kd)) = Some fl /\ plain fl /\ fdata fl = nth i closed [])
  /\ (exists fl, file_of f (cname c) = Some fl /\ plain fl /\ fdata fl = cur)
  /\ (forall n, ~ In n fnm -> file_of f n <> None -> n = cname c \/ exists i, i < length closed /\ n = kname c e (nth i keys kd)).

(* timestamps_stream carries over: with foreign files in the directory the family files still hold, in the order of
   their keys and with the current file last, exactly the bytes written *)
Theorem timestamps_stream_foreign c crit t0 off foreign ops :
  tscfg c crit -> tag_ok c -> Forall basic_op ops -> Forall tick_ok ops ->
  (0 <= t0 + ts_e c off)%Z -> (t0 + elapsed ops + ts_e c off < sec_max)%Z -> (N.of_nat (length ops) <= usize_max)%N ->
  NoDup (List.map fst foreign) ->
  (forall n, In n (List.map fst foreign) -> ts_member c n = false) ->
  let f := wfs (s_w (fst (run (sys0f t0 off foreign) (OStart c :: ops ++ [OStop])))) in
  ((forall n, ~ In n (List.map fst foreign) -> file_of f n = None) /\ written ops = [])
  \/ exists keys closed cur,
       ts_view_family c (ts_e c off) (List.map fst foreign) f keys closed cur
       /\ concat closed ++ cur = written ops
       /\ keys_ok keys
       /\ (forall k, In k keys -> (t0 <= fst k <= t0 + elapsed ops)%Z).
Proof.
  intros Hcfg T Hb Htk Hlo Hhi Hmax ND Hfor. cbv zeta.
  destruct (timestamps_foreign_ignored c crit t0 off foreign ops Hcfg T Hb Htk Hlo Hhi Hmax ND Hfor) as [_ [_ [_ [H3 _]]]].
  set (ff := wfs (s_w (fst (run (sys0f t0 off foreign) (OStart c :: ops ++ [OStop]))))) in *.
  destruct (timestamps_stream c crit t0 off ops Hcfg T Hb Htk Hlo Hhi Hmax) as [[He Hw]|[keys [cl [cu [[Hl [Hcl [Hcu [Hon _]]]] [Hc [K Rg]]]]]]].
  - left. split; [|exact Hw]. intros n Hn. rewrite (H3 n Hn). unfold file_of. rewrite lookup_empty by exact He. reflexivity.
  - right. exists keys, cl, cu. split; [|split; [exact Hc | split; [exact K | exact Rg]]].
    set (f0 := wfs (s_w (fst (run (sys0 t0 off) (OStart c :: ops ++ [OStop]))))) in *.
    assert (Y : years_ok (ts_e c off) t0 (t0 + elapsed ops)) by (split; assumption).
    assert (Hcn : ~ In (cname c) (List.map fst foreign)).
    { intros Hin. apply Hfor in Hin. unfold ts_member in Hin. rewrite beq_refl, orb_true_r in Hin. discriminate. }
    assert (Hkn : forall i, i < length cl -> ~ In (kname c (ts_e c off) (nth i keys kd)) (List.map fst foreign)).
    { intros i Hi Hin. apply Hfor in Hin. unfold ts_member in Hin. rewrite memberd_kname in Hin; [discriminate|].
      apply (years_in _ _ _ _ Y). apply Rg. apply nth_In. lia. }
    split; [exact Hl|]. split; [|split].
    + intros i Hi. destruct (Hcl i Hi) as [j [Lj PC]]. exact (own_file _ ff f0 H3 _ j _ (Hkn i Hi) Lj PC).
    + destruct Hcu as [j [Lj PC]]. exact (own_file _ ff f0 H3 _ j _ Hcn Lj PC).
    + intros n Hn Hex. destruct (own_exists _ ff f0 H3 n Hn Hex) as [j Lj]. exact (Hon n j Lj).
Qed.
Print Assumptions timestamps_stream_foreign.

(* ------------------------------------------------------------------ examples *)
Import String.StringSyntax.
Open Scope string_scope.
Definition extf_cfg (k : cleanup) (app : bool) : config :=
  {| c_spec := {| fbase := bs "a"; fdisc := None; fts := false; fsfx := Some (bs "log") |};
     c_append := app; c_cap := Some 3%nat; c_rot := Some (CSize 3, NTimestamps, k); c_utc := false;
     c_symlink := false; c_bg := false; c_async := false; c_start := None |}.
Definition extf_c : config := extf_cfg KNever true.

(* "abcd" is larger than 3: the write of "ef" rotates; the trigger rotates, and - "ghij" is larger than 3 - the write of "k".
   A closed file is named by the second in which it was created as the current file: all three by second 0 *)
Definition extf_ops : list op :=
  [OWrite (bs "abcd"); OWrite (bs "ef"); OTrigger; OTick 1; OWrite (bs "ghij"); OSnap; OWrite (bs "k")].

(* near misses of the family a_rCURRENT.log, a_r<time stamp>[.restart-NNNN].log[.gz]; among them the files of the number
   namings (plain and compressed), a number and a letter, a date without the time, a time stamp and a letter *)
Definition extf_foreign : list (bytes * bytes) :=
  [ (bs "a_r1970-01-01_00-00-00.log.bak", bs "w"); (bs "a_rXYZ.log", bs "x"); (bs "b.log", bs "y");
    (bs "a_r1970-01-01_00-00-00.txt", bs "z"); (bs "a_r1.log", bs "u"); (bs "ax_r1970-01-01_00-00-00.log", bs "v");
    (bs "a_r1970-01-01_00-00-00", bs "t"); (bs "a_rCURRENT.txt", bs "s"); (bs "a.log", bs "q");
    (bs "a_r1970-01-01_00-00-00.restart-00.log", bs "p"); (bs "a_1970-01-01_00-00-00.log", bs "o");
    (bs "a_rCURRENT.log.gz", bs "n"); (bs "a_rCURRENT", bs "m");
    (bs "a_r1x.log", bs "1"); (bs "a_r00001.log", bs "2"); (bs "a_r2030-01-01_00-00-00x.log", bs "3");
    (bs "a_r1970-01-01.log", bs "4"); (bs "a_r00001.log.gz", bs "5") ].

Example foreign_hypotheses_t :
  tscfg extf_c (CSize 3) /\ tag_ok extf_c /\ Forall basic_op extf_ops /\ Forall tick_ok extf_ops
  /\ (0 <= 0 + ts_e extf_c 0)%Z /\ (0 + elapsed extf_ops + ts_e extf_c 0 < sec_max)%Z
  /\ (N.of_nat (length extf_ops) <= usize_max)%N
  /\ NoDup (List.map fst extf_foreign)
  /\ (forall n, In n (List.map fst extf_foreign) -> ts_member extf_c n = false).
Proof.
  split; [repeat split|]. split; [apply tag_free_ok; split; vm_compute; reflexivity|].
  split; [repeat constructor|].
  split; [repeat (apply Forall_cons; [cbn [tick_ok]; first [exact Logic.I | lia]|]); apply Forall_nil|].
  split; [vm_compute; discriminate|]. split; [vm_compute; reflexivity|]. split; [vm_compute; discriminate|]. split.
  - apply nodupb_sound. vm_compute. reflexivity.
  - apply forallb_false. vm_compute. reflexivity.
Qed.

(* the theorem applied *)
Example foreign_instance_t :
  List.map (strip_obs (List.map fst extf_foreign)) (snd (run (sys0f 0 0 extf_foreign) (OStart extf_c :: extf_ops ++ [OStop])))
  = snd (run (sys0 0 0) (OStart extf_c :: extf_ops ++ [OStop])).
Proof.
  destruct foreign_hypotheses_t as [H1 [H2 [H3 [H4 [H5 [H6 [H7 [H8 H9]]]]]]]].
  exact (proj1 (timestamps_foreign_ignored extf_c (CSize 3) 0 0 extf_foreign extf_ops H1 H2 H3 H4 H5 H6 H7 H8 H9)).
Qed.

(* ... and computed: the directory after the run *)
Example foreign_instance_dir_t :
  ex_snap (fst (run (sys0f 0 0 extf_foreign) (OStart extf_c :: extf_ops ++ [OStop])))
  = [ (bs "a.log", 0%N, bs "q");
      (bs "a_1970-01-01_00-00-00.log", 0%N, bs "o");
      (bs "a_r00001.log", 0%N, bs "2");
      (bs "a_r00001.log.gz", 0%N, bs "5");
      (bs "a_r1.log", 0%N, bs "u");
      (bs "a_r1970-01-01.log", 0%N, bs "4");
      (bs "a_r1970-01-01_00-00-00", 0%N, bs "t");
      (bs "a_r1970-01-01_00-00-00.log", 0%N, bs "abcd");
      (bs "a_r1970-01-01_00-00-00.log.bak", 0%N, bs "w");
      (bs "a_r1970-01-01_00-00-00.restart-00.log", 0%N, bs "p");
      (bs "a_r1970-01-01_00-00-00.restart-0000.log", 0%N, bs "ef");
      (bs "a_r1970-01-01_00-00-00.restart-0001.log", 0%N, bs "ghij");
      (bs "a_r1970-01-01_00-00-00.txt", 0%N, bs "z");
      (bs "a_r1x.log", 0%N, bs "1");
      (bs "a_r2030-01-01_00-00-00x.log", 0%N, bs "3");
      (bs "a_rCURRENT", 0%N, bs "m");
      (bs "a_rCURRENT.log", 0%N, bs "k");
      (bs "a_rCURRENT.log.gz", 0%N, bs "n");
      (bs "a_rCURRENT.txt", 0%N, bs "s");
      (bs "a_rXYZ.log", 0%N, bs "x");
      (bs "ax_r1970-01-01_00-00-00.log", 0%N, bs "v");
      (bs "b.log", 0%N, bs "y") ]
  /\ ex_snap (fst (run (sys0 0 0) (OStart extf_c :: extf_ops ++ [OStop])))
  = [ (bs "a_r1970-01-01_00-00-00.log", 0%N, bs "abcd");
      (bs "a_r1970-01-01_00-00-00.restart-0000.log", 0%N, bs "ef");
      (bs "a_r1970-01-01_00-00-00.restart-0001.log", 0%N, bs "ghij");
      (bs "a_rCURRENT.log", 0%N, bs "k") ].
Proof. vm_compute. split; reflexivity. Qed.

(* the observations other than the snapshot are literally the same *)
Example foreign_instance_obs_t :
  filter (fun ob => match ob with ObsSnap _ _ _ => false | _ => true end)
    (snd (run (sys0f 0 0 extf_foreign) (OStart extf_c :: extf_ops ++ [OStop])))
  = [ObsRes 0 false; ObsRes 0 false; ObsRes 0 true; ObsRes 0 false; ObsRes 0 false; ObsRes 0 false; ObsRes 0 true; ObsRes 0 false].
Proof. vm_compute. reflexivity. Qed.

(* Files that pass the family test are NOT foreign, whoever put them there - and the model does act on them:
   (1) a_r1970-01-01_00-00-00.log, a_r1970-01-01_00-00-00.restart-0005.log, a_r1970-01-01_00-00-00.log.gz - the time stamp that
       the first rotation is going to use - : the closed files get the next restart counters (0000.., 0006.., 0000..);
   (2) a stranger's a_rCURRENT.log is taken for the logger's own current file: with append it is continued ("wabcd"),
       without append it is renamed by the time of its creation;
   (3) a_r1999-01-01_00-00-00.log: without cleanup it is left alone and has no influence (its time stamp is not asked for).
       With the cleanup "keep 2 log files" it is listed, counts as the newest file, and one of the logger's own files is
       removed in its place; a_r1960-01-01_00-00-00.log counts as the oldest and IS REMOVED; a_r1970-1-1_0-0-0.log (chrono
       reads it as a time stamp, but it is not the text the format writes) is foreign since the repair of the time-stamp filter.
   All these names DO follow the pattern <fixed>_<infix of the naming>.<suffix>[.gz]: this is legitimate.
   (a_r1x.log passes no filter that Timestamps naming applies: it is foreign, number_infix_foreign_t.  Before the repair of
   latest_timestamp_file the crate listed it with the number filter, see TsForeignFacts.v.) *)
Example member_files_t :
  let run_with k app n := ex_snap (fst (run (sys0f 0 0 [(bs n, bs "w")]) (OStart (extf_cfg k app) :: extf_ops ++ [OStop]))) in
  List.map (ts_member extf_c) [bs "a_r1970-01-01_00-00-00.log"; bs "a_r1970-01-01_00-00-00.restart-0005.log";
                               bs "a_r1970-01-01_00-00-00.log.gz"; bs "a_rCURRENT.log"; bs "a_r1999-01-01_00-00-00.log";
                               bs "a_r1960-01-01_00-00-00.log"; bs "a_r1970-1-1_0-0-0.log"]
  = [true; true; true; true; true; true; false]
  (* 1 *)
  /\ run_with KNever true "a_r1970-01-01_00-00-00.log"
     = [ (bs "a_r1970-01-01_00-00-00.log", 0%N, bs "w");
         (bs "a_r1970-01-01_00-00-00.restart-0000.log", 0%N, bs "abcd");
         (bs "a_r1970-01-01_00-00-00.restart-0001.log", 0%N, bs "ef");
         (bs "a_r1970-01-01_00-00-00.restart-0002.log", 0%N, bs "ghij");
         (bs "a_rCURRENT.log", 0%N, bs "k") ]
  /\ run_with KNever true "a_r1970-01-01_00-00-00.restart-0005.log"
     = [ (bs "a_r1970-01-01_00-00-00.restart-0005.log", 0%N, bs "w");
         (bs "a_r1970-01-01_00-00-00.restart-0006.log", 0%N, bs "abcd");
         (bs "a_r1970-01-01_00-00-00.restart-0007.log", 0%N, bs "ef");
         (bs "a_r1970-01-01_00-00-00.restart-0008.log", 0%N, bs "ghij");
         (bs "a_rCURRENT.log", 0%N, bs "k") ]
  /\ run_with KNever true "a_r1970-01-01_00-00-00.log.gz"
     = [ (bs "a_r1970-01-01_00-00-00.log.gz", 0%N, bs "w");
         (bs "a_r1970-01-01_00-00-00.restart-0000.log", 0%N, bs "abcd");
         (bs "a_r1970-01-01_00-00-00.restart-0001.log", 0%N, bs "ef");
         (bs "a_r1970-01-01_00-00-00.restart-0002.log", 0%N, bs "ghij");
         (bs "a_rCURRENT.log", 0%N, bs "k") ]
  (* 2 *)
  /\ run_with KNever true "a_rCURRENT.log"
     = [ (bs "a_r1970-01-01_00-00-00.log", 0%N, bs "wabcd");
         (bs "a_r1970-01-01_00-00-00.restart-0000.log", 0%N, bs "ef");
         (bs "a_r1970-01-01_00-00-00.restart-0001.log", 0%N, bs "ghij");
         (bs "a_rCURRENT.log", 0%N, bs "k") ]
  /\ run_with KNever false "a_rCURRENT.log"
     = [ (bs "a_r1970-01-01_00-00-00.log", 0%N, bs "w");
         (bs "a_r1970-01-01_00-00-00.restart-0000.log", 0%N, bs "abcd");
         (bs "a_r1970-01-01_00-00-00.restart-0001.log", 0%N, bs "ef");
         (bs "a_r1970-01-01_00-00-00.restart-0002.log", 0%N, bs "ghij");
         (bs "a_rCURRENT.log", 0%N, bs "k") ]
  (* 3 *)
  /\ run_with KNever true "a_r1999-01-01_00-00-00.log"
     = [ (bs "a_r1970-01-01_00-00-00.log", 0%N, bs "abcd");
         (bs "a_r1970-01-01_00-00-00.restart-0000.log", 0%N, bs "ef");
         (bs "a_r1970-01-01_00-00-00.restart-0001.log", 0%N, bs "ghij");
         (bs "a_r1999-01-01_00-00-00.log", 0%N, bs "w");
         (bs "a_rCURRENT.log", 0%N, bs "k") ]
  /\ ex_snap (fst (run (sys0 0 0) (OStart (extf_cfg (KLog 2) true) :: extf_ops ++ [OStop])))
     = [ (bs "a_r1970-01-01_00-00-00.restart-0000.log", 0%N, bs "ef");
         (bs "a_r1970-01-01_00-00-00.restart-0001.log", 0%N, bs "ghij");
         (bs "a_rCURRENT.log", 0%N, bs "k") ]
  /\ run_with (KLog 2) true "a_r1999-01-01_00-00-00.log"
     = [ (bs "a_r1970-01-01_00-00-00.restart-0001.log", 0%N, bs "ghij");
         (bs "a_r1999-01-01_00-00-00.log", 0%N, bs "w");
         (bs "a_rCURRENT.log", 0%N, bs "k") ]
  /\ run_with (KLog 2) true "a_r1960-01-01_00-00-00.log"
     = [ (bs "a_r1970-01-01_00-00-00.restart-0000.log", 0%N, bs "ef");
         (bs "a_r1970-01-01_00-00-00.restart-0001.log", 0%N, bs "ghij");
         (bs "a_rCURRENT.log", 0%N, bs "k") ].
Proof. vm_compute. repeat split. Qed.

(* A NUMBER INFIX IS FOREIGN for this naming: a_r00001.log and a_r00001.log.gz (the files of the number namings),
   a_r1x.log, a_r1backup.log, a_r00001x.log (what the number filter took for numbered files before its repair), a date
   without the time, a time stamp and a letter.  ts_member rejects them; the run with such a file in the directory - with
   append - is the run in the empty directory, the file stays what it was; and the cleanup (computed; the theorems above
   are about runs without cleanup) neither counts nor compresses nor removes them: "keep 1 log file and 1 archive" does to
   the logger's own files what it does in the empty directory. *)
Example number_infix_foreign_t :
  let names := [bs "a_r1x.log"; bs "a_r00001.log"; bs "a_r00001.log.gz"; bs "a_r1.log"; bs "a_r1backup.log"; bs "a_r00001x.log";
                bs "a_r1970-01-01.log"; bs "a_r2030-01-01_00-00-00x.log"] in
  let run_with k app n := ex_snap (fst (run (sys0f 0 0 [(bs n, bs "w")]) (OStart (extf_cfg k app) :: extf_ops ++ [OStop]))) in
  List.map (ts_member extf_c) names = List.map (fun _ => false) names
  /\ Forall (fun n =>
        List.map (strip_obs [n]) (snd (run (sys0f 0 0 [(n, bs "w")]) (OStart extf_c :: extf_ops ++ [OStop])))
        = snd (run (sys0 0 0) (OStart extf_c :: extf_ops ++ [OStop]))
        /\ file_of (wfs (s_w (fst (run (sys0f 0 0 [(n, bs "w")]) (OStart extf_c :: extf_ops ++ [OStop]))))) n
           = Some (plain_file 0 (bs "w"))) names
  /\ ex_snap (fst (run (sys0 0 0) (OStart (extf_cfg (KLogGz 1 1) false) :: extf_ops ++ [OStop])))
     = [ (bs "a_r1970-01-01_00-00-00.restart-0000.log.gz", 1%N, bs "ef");
         (bs "a_r1970-01-01_00-00-00.restart-0001.log", 0%N, bs "ghij");
         (bs "a_rCURRENT.log", 0%N, bs "k") ]
  /\ run_with (KLogGz 1 1) false "a_r00001.log"
     = [ (bs "a_r00001.log", 0%N, bs "w");
         (bs "a_r1970-01-01_00-00-00.restart-0000.log.gz", 1%N, bs "ef");
         (bs "a_r1970-01-01_00-00-00.restart-0001.log", 0%N, bs "ghij");
         (bs "a_rCURRENT.log", 0%N, bs "k") ]
  /\ run_with (KLogGz 1 1) false "a_r00001.log.gz"
     = [ (bs "a_r00001.log.gz", 0%N, bs "w");
         (bs "a_r1970-01-01_00-00-00.restart-0000.log.gz", 1%N, bs "ef");
         (bs "a_r1970-01-01_00-00-00.restart-0001.log", 0%N, bs "ghij");
         (bs "a_rCURRENT.log", 0%N, bs "k") ]
  /\ run_with (KLogGz 1 1) false "a_r1x.log"
     = [ (bs "a_r1970-01-01_00-00-00.restart-0000.log.gz", 1%N, bs "ef");
         (bs "a_r1970-01-01_00-00-00.restart-0001.log", 0%N, bs "ghij");
         (bs "a_r1x.log", 0%N, bs "w");
         (bs "a_rCURRENT.log", 0%N, bs "k") ].
Proof.
  cbv zeta. split; [vm_compute; reflexivity|]. split; [|vm_compute; repeat split; reflexivity].
  repeat (apply Forall_cons; [vm_compute; split; reflexivity|]). apply Forall_nil.
Qed.

(* the foreign file a_rXYZ.log is not touched by that cleanup (computed; the theorems above are about runs without cleanup) *)
Example foreign_file_cleanup_t :
  ts_member extf_c (bs "a_rXYZ.log") = false
  /\ ex_snap (fst (run (sys0f 0 0 [(bs "a_rXYZ.log", bs "w")]) (OStart (extf_cfg (KLog 2) true) :: extf_ops ++ [OStop])))
     = [ (bs "a_r1970-01-01_00-00-00.restart-0000.log", 0%N, bs "ef");
         (bs "a_r1970-01-01_00-00-00.restart-0001.log", 0%N, bs "ghij");
         (bs "a_rCURRENT.log", 0%N, bs "k");
         (bs "a_rXYZ.log", 0%N, bs "w") ].
Proof. vm_compute. split; reflexivity. Qed.

(* the stream theorem applied: the family files hold the bytes written *)
Example stream_instance_t :
  exists keys closed cur,
    ts_view_family extf_c 0 (List.map fst extf_foreign)
      (wfs (s_w (fst (run (sys0f 0 0 extf_foreign) (OStart extf_c :: extf_ops ++ [OStop]))))) keys closed cur
    /\ concat closed ++ cur = bs "abcdefghijk" /\ keys_ok keys /\ (forall k, In k keys -> (0 <= fst k <= 1)%Z).
Proof.
  destruct foreign_hypotheses_t as [H1 [H2 [H3 [H4 [H5 [H6 [H7 [H8 H9]]]]]]]].
  destruct (timestamps_stream_foreign extf_c (CSize 3) 0 0 extf_foreign extf_ops H1 H2 H3 H4 H5 H6 H7 H8 H9) as [[_ X]|X];
    [vm_compute in X; discriminate | exact X].
Qed.
