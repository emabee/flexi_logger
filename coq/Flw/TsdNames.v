(* "Every file the logger creates is named as documented" for TimestampsDirect naming (NamesDocumented.v has Numbers,
   NumbersDirect and Timestamps): the oracle Oracles/O_Names.name_documented accepts every name in the directory, at every point
   of every history covered by timestampsdirect_stream.  The files are  <fixed>_r<time stamp>[.restart-NNNN][.suffix]; there is no
   rCURRENT file (cur_infix_of c = None), and the oracle would reject one (example tsd_rcurrent_not_documented).  Hypothesis
   not_gz as for the other namings: the family's suffix is not "gz" and does not end with ".gz". *)
Require Import FL.Base.Bytes FL.Base.PathName FL.Fs.Fs FL.Time.TsFormat
  FL.Names.FileSpec FL.Names.NamesFacts FL.Names.SortFacts FL.Names.FamilyFacts FL.Flw.Model FL.Flw.ModelFacts
  FL.Flw.NumInv FL.Flw.Run FL.Flw.NumRun FL.Oracles.O_Flw FL.Oracles.ReaderOrder FL.Oracles.O_Names
  FL.Flw.NumTheorems FL.Flw.NumListing FL.Flw.NumRestart
  FL.Flw.TsTime FL.Flw.TsNames FL.Flw.TsInv FL.Flw.TsRun FL.Flw.TsTheorems FL.Flw.TsReader
  FL.Flw.TsdInv FL.Flw.TsdRun FL.Flw.TsdTheorems
  FL.Flw.NumKillRestart FL.Flw.NoPanic FL.Flw.TsParse FL.Flw.NamesDocumented FL.Flw.TsdNoPanic.
Open Scope nat_scope.

(* ------------------------------------------------------------------ the infixes *)
(* <time stamp> and <time stamp>.restart-NNNN are valid infixes of every naming whose format is the standard one
   (NamesDocumented.valid_ts_infix is the instance NTimestamps) *)
Lemma valid_std_infix nam cur e k : fmt_of nam = Some std_fmt -> in_years e (fst k) -> valid_infix nam cur (infix_of e k) = true.
Proof.
  intros F H. unfold valid_infix. rewrite F.
  assert (Hc : contains restart_tag (tsx e (fst k)) = false) by (apply no_dot_no_tag; exact (tsx_no_dot e _ H)).
  unfold infix_of. destruct (snd k) as [|m].
  - unfold split_restart. apply contains_false_iff in Hc. rewrite Hc, (parse_tsx e _ H). apply orb_true_r.
  - unfold split_restart, restart_infix. rewrite (sk_find_tag_app _ _ Hc), sk_firstn_app, (parse_tsx e _ H).
    rewrite sk_skipn_app, skipn_length_app. fold (restart_digits (N.of_nat m)). rewrite restart_digits_all.
    destruct (Nat.leb_spec 4 (length (restart_digits (N.of_nat m)))) as [_|X]; [|pose proof (restart_digits_length (N.of_nat m)); lia].
    apply orb_true_r.
Qed.

Lemma documented_kname_d c crit k e key : c_rot c = Some (crit, NTimestampsDirect, k) -> fts (c_spec c) = false -> not_gz c ->
  in_years e (fst key) -> name_documented c [] (kname c e key) = true.
Proof.
  intros Hrot Hts G Y. unfold name_documented. rewrite Hrot, (doc_fixed_fixed0 c [] Hts), (full_infix_kname c e key G Y).
  apply valid_std_infix; [reflexivity | exact Y].
Qed.

(* ------------------------------------------------------------------ the directory that the stopped writer leaves *)
Lemma tsd_view_documented c crit e lo hi f keys files : tsdcfg c crit -> not_gz c -> years_ok e lo hi ->
  (forall k, In k keys -> (lo <= fst k <= hi)%Z) -> tsd_view c e f keys files -> all_documented c f.
Proof.
  intros [Hrot [Hts _]] G Y Rg [Hlen [_ [Hon _]]] n In_. apply dir_names_lookup in In_. destruct In_ as [j Lj].
  destruct (Hon n j Lj) as [i [Hi ->]].
  apply (documented_kname_d c crit KNever e _ Hrot Hts G). apply (years_in e lo hi _ Y). apply Rg, nth_In. lia.
Qed.

(* hypotheses of timestampsdirect_stream, and not_gz *)
Theorem timestampsdirect_names_documented c crit t0 off ops :
  tsdcfg c crit -> tag_ok c -> not_gz c -> Forall basic_op ops -> Forall tick_ok ops ->
  (0 <= t0 + ts_e c off)%Z -> (t0 + elapsed ops + ts_e c off < sec_max)%Z -> (N.of_nat (length ops) <= usize_max)%N ->
  all_documented c (wfs (s_w (fst (run (sys0 t0 off) (OStart c :: ops ++ [OStop]))))).
Proof.
  intros Hcfg T G Hb Htk Hlo Hhi Hmax.
  destruct (timestampsdirect_stream_view c crit t0 off ops Hcfg T Hb Htk Hlo Hhi Hmax) as [keys [files [V [_ [_ Rg]]]]].
  assert (Y : years_ok (ts_e c off) t0 (t0 + elapsed ops)) by (split; assumption).
  exact (tsd_view_documented c crit _ _ _ _ keys files Hcfg G Y Rg V).
Qed.
Print Assumptions timestampsdirect_names_documented.

(* ------------------------------------------------------------------ at every point of the history *)
Lemma reltd_documented c crit e lo hi n x a : tsdcfg c crit -> not_gz c -> years_ok e lo hi -> (wnow (s_w x) <= hi)%Z ->
  RelTd c crit e lo n x a -> all_documented c (wfs (s_w x)).
Proof.
  intros [Hrot [Hts _]] G Y Hhi [_ [_ R]]. destruct a as [[closed cur]|].
  - destruct R as [keys [wr [roll [_ [Iv _]]]]]. intros m In_. apply dir_names_lookup in In_. destruct In_ as [j Lj].
    destruct (td_only _ _ _ _ _ _ _ Iv m j Lj) as [i [Hi ->]].
    apply (documented_kname_d c crit KNever e _ Hrot Hts G). apply (years_in e lo hi _ Y).
    pose proof (td_range _ _ _ _ _ _ _ Iv (nth i keys kd)) as Rg. pose proof (td_len _ _ _ _ _ _ _ Iv) as Hl.
    assert (Ik : In (nth i keys kd) keys) by (apply nth_In; lia). specialize (Rg Ik). lia.
  - destruct R as [_ [_ [Hn _]]]. apply all_documented_empty. exact Hn.
Qed.

(* the directory after  OStart c :: ops  - the writer is still open -, for every history *)
Theorem timestampsdirect_names_documented_always c crit t0 off ops :
  tsdcfg c crit -> tag_ok c -> not_gz c -> Forall basic_op ops -> Forall tick_ok ops ->
  (0 <= t0 + ts_e c off)%Z -> (t0 + elapsed ops + ts_e c off < sec_max)%Z -> (N.of_nat (length ops) <= usize_max)%N ->
  all_documented c (wfs (s_w (fst (run (sys0 t0 off) (OStart c :: ops))))).
Proof.
  intros Hcfg T G Hb Htk Hlo Hhi Hmax. cbn [run]. destruct (step (sys0 t0 off) (OStart c)) as [x0 ob0] eqn:E0.
  pose proof (start_rel_tsd c crit t0 off) as R0. rewrite E0 in R0. cbn [fst] in R0.
  assert (W0 : wnow (s_w x0) = t0) by (cbn in E0; injection E0 as <- _; reflexivity).
  assert (Y : years_ok (ts_e c off) t0 (t0 + elapsed ops)) by (split; assumption).
  pose proof (run_rel_tsd c crit _ _ _ Hcfg T Y ops x0 None 0 R0 Hb Htk ltac:(lia) ltac:(cbn [Nat.add]; exact Hmax)) as [R1 [W1 _]].
  destruct (run x0 ops) as [x1 obs1]. cbn [fst snd] in *.
  apply (reltd_documented c crit _ _ _ _ x1 _ Hcfg G Y ltac:(lia) R1).
Qed.
Print Assumptions timestampsdirect_names_documented_always.

(* ------------------------------------------------------------------ every snapshot taken during the run *)
Lemma run_snaps_documented_tsd c crit e lo hi : tsdcfg c crit -> tag_ok c -> not_gz c -> years_ok e lo hi ->
  forall ops x a n, RelTd c crit e lo n x a -> Forall basic_op ops -> Forall tick_ok ops ->
  (wnow (s_w x) + elapsed ops <= hi)%Z -> (N.of_nat (n + length ops) <= usize_max)%N ->
  Forall (snap_documented c) (snd (run x ops)).
Proof.
  intros Hcfg T G Y ops x a n R Hb Htk Hhi Hmax.
  refine (proj2 (proj2 (run_invariant (fun n x => exists a, RelTd c crit e lo n x a) (snap_documented c) hi _ ops x n (ex_intro _ a R)
                          Hb Htk Hhi Hmax))).
  clear - Hcfg T G Y. intros n x o [a R] Ho Hto Hhi Hmax.
  pose proof (step_rel_tsd c crit e lo hi n x a o Hcfg T Y R Ho Hto Hhi Hmax) as S.
  pose proof (step_rel_tsd_ok c crit e lo hi n x a o Hcfg T Y R Ho Hto Hhi Hmax) as K.
  pose proof (step_snap_documented c x o Ho K (reltd_documented c crit e lo hi n x a Hcfg G Y Hhi R)) as D.
  destruct (step x o) as [x1 ob]. destruct S as [R1 [W1 _]]. split; [exact (ex_intro _ _ R1)|]. split; [exact W1 | exact D].
Qed.

Theorem timestampsdirect_snapshots_documented c crit t0 off ops :
  tsdcfg c crit -> tag_ok c -> not_gz c -> Forall basic_op ops -> Forall tick_ok ops ->
  (0 <= t0 + ts_e c off)%Z -> (t0 + elapsed ops + ts_e c off < sec_max)%Z -> (N.of_nat (length ops) <= usize_max)%N ->
  Forall (snap_documented c) (snd (run (sys0 t0 off) (OStart c :: ops))).
Proof.
  intros Hcfg T G Hb Htk Hlo Hhi Hmax. cbn [run]. destruct (step (sys0 t0 off) (OStart c)) as [x0 ob0] eqn:E0.
  pose proof (start_rel_tsd c crit t0 off) as R0. rewrite E0 in R0. cbn [fst] in R0.
  assert (K0 : snap_documented c ob0) by (cbn in E0; injection E0 as _ <-; exact I).
  assert (W0 : wnow (s_w x0) = t0) by (cbn in E0; injection E0 as <- _; reflexivity).
  assert (Y : years_ok (ts_e c off) t0 (t0 + elapsed ops)) by (split; assumption).
  pose proof (run_snaps_documented_tsd c crit _ _ _ Hcfg T G Y ops x0 None 0 R0 Hb Htk ltac:(lia) ltac:(cbn [Nat.add]; exact Hmax)) as K1.
  destruct (run x0 ops) as [x1 obs1]. cbn [snd] in *. constructor; assumption.
Qed.
Print Assumptions timestampsdirect_snapshots_documented.

(* ------------------------------------------------------------------ instances *)
Import String.StringSyntax.
Open Scope string_scope.

Lemma tsd_instance_bounds : (0 <= 0 + ts_e tsd_c 0)%Z /\ (0 + elapsed ext_ops + ts_e tsd_c 0 < sec_max)%Z
  /\ (N.of_nat (length ext_ops) <= usize_max)%N.
Proof.
  split; [change (0 <= 0)%Z; lia|]. split; [change (1 < sec_max)%Z; unfold sec_max; lia | vm_compute; discriminate].
Qed.

(* six files, among them <ts>.restart-0002 *)
Example timestampsdirect_names_documented_instance :
  all_documented tsd_c (wfs (s_w (fst (run (sys0 0 0) (OStart tsd_c :: ext_ops ++ [OStop])))))
  /\ sort_names (dir_names (wfs (s_w (fst (run (sys0 0 0) (OStart tsd_c :: ext_ops ++ [OStop]))))))
     = List.map bs ["app_r1970-01-01_00-00-00.log"; "app_r1970-01-01_00-00-00.restart-0000.log";
                    "app_r1970-01-01_00-00-00.restart-0001.log"; "app_r1970-01-01_00-00-00.restart-0002.log";
                    "app_r1970-01-01_00-00-01.log"; "app_r1970-01-01_00-00-01.restart-0000.log"]
  /\ name_documented tsd_c [] (bs "app_r1970-01-01_00-00-00.restart-0002.log") = true.
Proof.
  split; [|split; vm_compute; reflexivity]. destruct tsd_instance_bounds as (B1 & B2 & B3).
  exact (timestampsdirect_names_documented tsd_c (CSize 100) 0 0 ext_ops tsd_c_ok tsd_c_tag_ok tsd_c_not_gz ext_ops_basic ext_ops_ticks
           B1 B2 B3).
Qed.

(* the snapshot inside this history (its last operation) shows the five files that exist then and the one being written *)
Example timestampsdirect_snapshots_documented_instance :
  Forall (snap_documented tsd_c) (snd (run (sys0 0 0) (OStart tsd_c :: ext_ops)))
  /\ exists link errs,
       last (snd (run (sys0 0 0) (OStart tsd_c :: ext_ops))) (ObsRes 9 false)
       = ObsSnap [ (bs "app_r1970-01-01_00-00-00.log", 0%N, bs "a");
                   (bs "app_r1970-01-01_00-00-00.restart-0000.log", 0%N, bs "b");
                   (bs "app_r1970-01-01_00-00-00.restart-0001.log", 0%N, bs "c");
                   (bs "app_r1970-01-01_00-00-00.restart-0002.log", 0%N, bs "d");
                   (bs "app_r1970-01-01_00-00-01.log", 0%N, bs "e");
                   (bs "app_r1970-01-01_00-00-01.restart-0000.log", 0%N, bs "") ] link errs.
Proof.
  split; [|vm_compute; eauto]. destruct tsd_instance_bounds as (B1 & B2 & B3).
  exact (timestampsdirect_snapshots_documented tsd_c (CSize 100) 0 0 ext_ops tsd_c_ok tsd_c_tag_ok tsd_c_not_gz ext_ops_basic ext_ops_ticks
           B1 B2 B3).
Qed.

Example timestampsdirect_names_documented_always_instance :
  all_documented tsd_c (wfs (s_w (fst (run (sys0 0 0) (OStart tsd_c :: ext_ops))))).
Proof.
  destruct tsd_instance_bounds as (B1 & B2 & B3).
  exact (timestampsdirect_names_documented_always tsd_c (CSize 100) 0 0 ext_ops tsd_c_ok tsd_c_tag_ok tsd_c_not_gz ext_ops_basic
           ext_ops_ticks B1 B2 B3).
Qed.

(* what is not documented for this naming is rejected: an rCURRENT file (TimestampsDirect has none), a number, a restart
   counter with three digits, a month 13 *)
Example tsd_rcurrent_not_documented :
  name_documented tsd_c [] (bs "app_rCURRENT.log") = false
  /\ name_documented tsd_c [] (bs "app_r00000.log") = false
  /\ name_documented tsd_c [] (bs "app_r1970-01-01_00-00-00.restart-002.log") = false
  /\ name_documented tsd_c [] (bs "app_r1970-13-01_00-00-00.log") = false
  /\ cur_infix_of tsd_c = None.
Proof. vm_compute. repeat split; reflexivity. Qed.

(* not_gz is needed, as for the other namings: with the suffix "gz" the oracle takes ".gz" for the mark of an archive and
   rejects the names the writer creates *)
Example tsd_gz_suffix_not_documented :
  let c := tsd_cfg (ex_sp "gz") false (CSize 100) None false in
  snap_of (fst (run (sys0 0 0) (OStart c :: [OWrite (bs "a"); OTrigger; OWrite (bs "b")] ++ [OStop])))
  = [ (bs "app_r1970-01-01_00-00-00.gz", 0%N, bs "a"); (bs "app_r1970-01-01_00-00-00.restart-0000.gz", 0%N, bs "b") ]
  /\ name_documented c [] (bs "app_r1970-01-01_00-00-00.gz") = false
  /\ name_documented c [] (bs "app_r1970-01-01_00-00-00.restart-0000.gz") = false
  /\ ~ not_gz c.
Proof. vm_compute. repeat split; try reflexivity. intros H; discriminate H. Qed.
