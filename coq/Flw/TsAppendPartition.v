(* Timestamps naming (rCURRENT + r<time stamp>[.restart-NNNN]) with a size criterion: the greedy partition over SEQUENCES of
   runs on one directory (C08 with content found at start).
   - with append the content found in rCURRENT counts for the limit from the first write on;
   - without append rCURRENT is closed - under the stamp of ITS creation - when the new writer writes for the first time, and
     the run's own files are those of a fresh start;
   - a writer that never writes leaves the directory as it is.
   The abstract side (gs_run, files_after, cur_before, runs_files) is the one of NumAppendPartition.v; the concrete side is
   the one of TsRestart.v, strengthened by the roll state: the size counted is the length of the reader's view of rCURRENT. *)
Require Import FL.Base.Bytes FL.Base.PathName FL.Fs.Fs FL.Time.TsFormat
  FL.Names.FileSpec FL.Names.NamesFacts FL.Names.SortFacts FL.Flw.Model FL.Flw.ModelFacts FL.Flw.NumInv FL.Flw.Run
  FL.Flw.RunFacts FL.Flw.NumRun FL.Oracles.O_Flw FL.Flw.NumTheorems FL.Flw.NumListing FL.Flw.NumRestart
  FL.Flw.TsTime FL.Flw.TsNames FL.Flw.TsInv FL.Flw.TsRun FL.Flw.TsTheorems FL.Flw.TsRestartInv FL.Flw.TsRestart
  FL.Flw.TsPartition FL.Flw.NumAppendPartition.
Import String.StringSyntax.
Open Scope nat_scope.

(* ------------------------------------------------------------------ the roll state, exactly *)
Lemma rot_nec_size w m k : rotation_necessary w (RSize m k) = (m <? k)%N.
Proof. reflexivity. Qed.

(* ------------------------------------------------------------------ the relation with the roll state *)
Definition vwT (d : tview) : aview := match d with Some (_, cl, cu, _) => Some (cl, cu) | None => None end.

Definition ActTz (c : config) (m : N) (e lo : Z) (n : nat) (x : sys) (D : list key * list bytes * bytes * Z) : Prop :=
  envT c e x /\
  let '(keys, closed, cur, ts) := D in
  exists wr, s_flw x = Some (st_ts c ts (RSize m (N.of_nat (length cur))) wr) /\ TsInvB c e lo (s_w x) wr keys closed ts
    /\ cur_view (s_w x) wr = cur /\ length closed <= n.

Definition GRelTz (c : config) (m : N) (e lo : Z) (n : nat) (x : sys) (d0 : tview) (a : aview) : Prop :=
  match a with
  | None => PreT c e lo n x d0
  | Some (cl, cu) => exists keys ts, ActTz c m e lo n x (keys, cl, cu, ts)
  end.

Lemma ActTz_ActT c m e lo n x D : ActTz c m e lo n x D -> ActT c e lo n x (Some D).
Proof.
  destruct D as [[[keys closed] cur] ts]. intros [E0 [wr [Es [I [V Hn]]]]]. split; [exact E0|].
  exists wr, (RSize m (N.of_nat (length cur))). auto.
Qed.

Lemma GRelTz_GRelT c m e lo n x d0 a : GRelTz c m e lo n x d0 a ->
  exists a', GRelT c e lo n x d0 a' /\ vwT (gviewT d0 a') = gview (vwT d0) a.
Proof.
  destruct a as [[cl cu]|]; cbn [GRelTz].
  - intros [keys [ts A]]. exists (Some (keys, cl, cu, ts)). split; [exact (ActTz_ActT _ _ _ _ _ _ _ A) | reflexivity].
  - intros P. exists None. split; [exact P | reflexivity].
Qed.

(* ------------------------------------------------------------------ one operation of a writer that has written *)
(* with a size criterion the roll state after the operation counts the bytes of the current file again *)
Lemma s_next_size w (keys : list key) (cl : list bytes) (cu : bytes) (ts : Z) m o : basic_op o ->
  let '(keys', cl', cu', ts', roll') := s_next w (keys, cl, cu, ts, RSize m (N.of_nat (length cu))) o in
  a_step (Some (cl, cu)) o (rot_of (d_obs w (RSize m (N.of_nat (length cu))) o)) = Some (cl', cu')
  /\ roll' = RSize m (N.of_nat (length cu')) /\ length cl' <= S (length cl).
Proof.
  intros Hb.
  assert (Same : a_step (Some (cl, cu)) OFlush false = Some (cl, cu)
            /\ RSize m (N.of_nat (length cu)) = RSize m (N.of_nat (length cu)) /\ length cl <= S (length cl)).
  { split; [reflexivity|]. split; [reflexivity | lia]. }
  assert (Wr : forall b, let '(keys', cl', cu', ts', roll') := s_next w (keys, cl, cu, ts, RSize m (N.of_nat (length cu))) (OWrite b) in
            Some (if rotation_necessary w (RSize m (N.of_nat (length cu))) then (cl ++ [cu], b) else (cl, cu ++ b)) = Some (cl', cu')
            /\ roll' = RSize m (N.of_nat (length cu')) /\ length cl' <= S (length cl)).
  { intros b. cbn [s_next]. destruct (rotation_necessary w (RSize m (N.of_nat (length cu)))).
    - split; [reflexivity|]. split; [reflexivity|]. rewrite app_length. cbn [length]. lia.
    - split; [reflexivity|]. split; [cbn [increase_size]; rewrite app_length, Nat2N.inj_add; reflexivity | lia]. }
  destruct o; try contradiction.
  - exact (Wr b).
  - exact (Wr b).
  - exact Same.
  - split; [reflexivity|]. split; [reflexivity|]. rewrite app_length. cbn [length]. lia.
  - exact Same.
  - exact Same.
Qed.

Lemma act_step_z c m e lo hi n x d0 keys cl cu ts o :
  tscfg c (CSize m) -> tag_ok c -> years_ok e lo hi -> ActTz c m e lo n x (keys, cl, cu, ts) -> basic_op o -> tick_ok o ->
  (wnow (s_w x) <= hi)%Z -> (N.of_nat n <= usize_max)%N ->
  GRelTz c m e lo (S n) (fst (step x o)) d0 (a_step (Some (cl, cu)) o (rot_of (snd (step x o))))
  /\ wnow (s_w (fst (step x o))) = (wnow (s_w x) + dt_of o)%Z
  /\ (forall b, o = OWrite b \/ o = OPlain b -> snd (step x o) = ObsRes 0 (m <? N.of_nat (length cu))%N).
Proof.
  intros Hcfg T Y A Hb Htk Hhi Hmax.
  destruct A as [[Ht [Ha [Q Ho]]] [wr [Es [I [V Hn]]]]].
  assert (A : ActS c e lo (st_ts c ts (RSize m (N.of_nat (length cu))) wr) (s_w x) (keys, cl, cu, ts, RSize m (N.of_nat (length cu)))).
  { exists wr. split; [reflexivity|]. split; [exact I | exact V]. }
  destruct (act_step_ts c (CSize m) e lo hi x _ keys cl cu ts _ o Hcfg T Y Es A Ht Hb Htk Hhi ltac:(lia))
    as [x' [s' [E [Es' [A' [Ht' [N' [O' Ac']]]]]]]]. rewrite E. cbn [fst snd].
  pose proof (s_next_size (s_w x) keys cl cu ts m o Hb) as D.
  destruct (s_next (s_w x) (keys, cl, cu, ts, RSize m (N.of_nat (length cu))) o) as [[[[keys' cl'] cu'] ts'] roll'].
  destruct D as [Ea [-> Hl]]. destruct A' as [wr' [-> [I' V']]]. rewrite Ea.
  split; [|split; [exact N' | intros b [-> | ->]; reflexivity]].
  exists keys', ts'. pose proof (proj1 I') as J. split.
  { split; [exact Ht'|]. split; [rewrite Ac'; exact Ha|]. split; [exact (ti_quiet _ _ _ _ _ _ _ _ J) | exact (ti_off _ _ _ _ _ _ _ _ J)]. }
  exists wr'. split; [exact Es'|]. split; [exact I'|]. split; [exact V' | lia].
Qed.

(* ------------------------------------------------------------------ the first write of a writer *)
Lemma first_write_z c m e lo hi n x d b :
  tscfg c (CSize m) -> tag_ok c -> years_ok e lo hi -> PreT c e lo n x d ->
  (wnow (s_w x) <= hi)%Z -> (N.of_nat n <= usize_max)%N ->
  let rot := (m <? N.of_nat (length (snd (init_view c (vwT d)))))%N in
  exists w' s', write_buffer (new_flw c) (s_w x) b = (Ok tt, w', s', rot)
    /\ GRelTz c m e lo (S n) {| s_flw := Some s'; s_w := w'; s_tl := []; s_dead := s_dead x |} d
         (a_step (Some (init_view c (vwT d))) (OPlain b) rot)
    /\ wnow w' = wnow (s_w x).
Proof.
  intros Hcfg T Y [E0 [Es [D Hn]]] Hhi Hmax rot. pose proof E0 as [Ht [Ha [Q Ho]]].
  assert (IN : exists w1 wr1 keys1 closed1 ts1,
            initialize c (s_w x) = (Ok (Active (Some (mk_rs (NSTs ts1 (Some cur_infix) std_fmt) (RSize m (N.of_nat (length (cur_view w1 wr1)))))) wr1 (cname c)), w1)
            /\ TsInvB c e lo w1 wr1 keys1 closed1 ts1 /\ same_env (s_w x) w1
            /\ init_view c (vwT d) = (closed1, cur_view w1 wr1)
            /\ length closed1 <= n).
  { destruct d as [[[[keys closed] cur] ts]|]; cbn [dir_ts closedT vwT init_view] in D, Hn |- *.
    - destruct D as [wr [I [Hp V]]].
      destruct (initialize_view_ts c (CSize m) e lo hi (s_w x) wr keys closed ts Hcfg T Y I Hp Hhi ltac:(lia))
        as [w1 [wr1 [keys1 [closed1 [ts1 [Ei [I1 [S1 V1]]]]]]]].
      exists w1, wr1, keys1, closed1, ts1. split; [exact Ei|]. split; [exact I1|]. split; [exact S1|].
      rewrite V in V1. destruct (c_append c); injection V1 as -> -> -> ->.
      + split; [reflexivity | lia].
      + split; [reflexivity | rewrite app_length; cbn [length]; lia].
    - destruct D as [Hnm [Hin Hlo]].
      destruct (initialize_ts_empty c (CSize m) e lo (s_w x) Hcfg Q Hnm Hin Ho Hlo) as [w1 [wr1 [Ei [I1 [V1 S1]]]]].
      exists w1, wr1, [], [], (wnow (s_w x)). split; [rewrite V1; exact Ei|]. split; [exact I1|]. split; [exact S1|].
      split; [rewrite V1; reflexivity | cbn [length]; lia]. }
  destruct IN as [w1 [wr1 [keys1 [closed1 [ts1 [Ei [I1 [S1 [IV L1]]]]]]]]].
  unfold rot. rewrite IV. cbn [snd].
  assert (Hhi1 : (wnow w1 <= hi)%Z) by (rewrite (same_env_now _ _ S1); exact Hhi).
  assert (A1 : ActS c e lo (st_ts c ts1 (RSize m (N.of_nat (length (cur_view w1 wr1)))) wr1) w1
                 (keys1, closed1, cur_view w1 wr1, ts1, RSize m (N.of_nat (length (cur_view w1 wr1))))).
  { exists wr1. split; [reflexivity|]. split; [exact I1 | reflexivity]. }
  destruct (act_write_ts c (CSize m) e lo hi _ w1 keys1 closed1 _ ts1 _ b Hcfg T Y A1 Hhi1 ltac:(lia)) as [w' [s' [E [S' A']]]].
  pose proof (s_next_size w1 keys1 closed1 (cur_view w1 wr1) ts1 m (OWrite b) Logic.I) as D1.
  destruct (s_next w1 (keys1, closed1, cur_view w1 wr1, ts1, RSize m (N.of_nat (length (cur_view w1 wr1)))) (OWrite b))
    as [[[[keys' cl'] cu'] ts'] roll'].
  destruct D1 as [Ea [-> Hl]]. destruct A' as [wr' [-> [I' V']]].
  eexists w', _.
  split. { rewrite (write_buffer_init c (s_w x) b _ _ _ w1 Ei). exact E. }
  assert (S2 : same_env (s_w x) w') by (eapply same_env_trans; eassumption).
  split; [|exact (same_env_now _ _ S2)].
  assert (Ea' : a_step (Some (closed1, cur_view w1 wr1)) (OPlain b) (m <? N.of_nat (length (cur_view w1 wr1)))%N = Some (cl', cu'))
    by exact Ea.
  rewrite Ea'. exists keys', ts'. split; [apply (envT_env c e x _ E0); [reflexivity | exact S2]|].
  exists wr'. cbn [s_flw s_w]. split; [reflexivity|]. split; [exact I'|]. split; [exact V' | lia].
Qed.

(* ------------------------------------------------------------------ one operation of a run *)
Lemma gstep_z c m e lo hi n x d0 a o :
  tscfg c (CSize m) -> tag_ok c -> years_ok e lo hi -> GRelTz c m e lo n x d0 a -> basic_op o -> tick_ok o ->
  (wnow (s_w x) <= hi)%Z -> (N.of_nat n <= usize_max)%N ->
  GRelTz c m e lo (S n) (fst (step x o)) d0 (g_step c (vwT d0) a o (rot_of (snd (step x o))))
  /\ wnow (s_w (fst (step x o))) = (wnow (s_w x) + dt_of o)%Z
  /\ (forall b, o = OWrite b \/ o = OPlain b -> snd (step x o) = ObsRes 0 (m <? N.of_nat (length (gcur c (vwT d0) a)))%N).
Proof.
  intros Hcfg T Y G Hb Htk Hhi Hmax. destruct a as [[cl cu]|].
  - cbn [GRelTz g_step gcur] in *. destruct G as [keys [ts A]].
    exact (act_step_z c m e lo hi n x d0 keys cl cu ts o Hcfg T Y A Hb Htk Hhi Hmax).
  - cbn [GRelTz g_step gcur] in *. pose proof G as [[Ht [Ha [Q Ho]]] [Es [D Hn]]].
    rewrite (step_sync_cfg c (CSize m) x _ o Hcfg Es eq_refl).
    destruct o; try contradiction; cbn [sync_step dt_of].
    + (* OWrite *)
      destruct (first_write_z c m e lo hi n x d0 (s_tl x ++ b) Hcfg T Y G Hhi Hmax) as [w' [s' [E [G' W']]]].
      rewrite Es. cbn [new_flw f_poisoned]. fold (new_flw c). rewrite E. cbn [fst snd s_w rot_of].
      rewrite Ht in G'. cbn [app] in G'. split; [exact G'|]. split; [lia|]. intros b0 _. reflexivity.
    + (* OPlain *)
      destruct (first_write_z c m e lo hi n x d0 b Hcfg T Y G Hhi Hmax) as [w' [s' [E [G' W']]]].
      rewrite Es. cbn [new_flw f_poisoned]. fold (new_flw c). rewrite E. cbn [fst snd s_w rot_of code_of]. rewrite Ht.
      split; [exact G'|]. split; [lia|]. intros b0 _. reflexivity.
    + (* OFlush *)
      rewrite Es. cbn [new_flw f_poisoned flush_state f_inner fst snd s_w GRelTz].
      split; [|split; [lia | intros b [H|H]; discriminate]].
      split; [repeat split; try assumption; apply Q|]. split; [reflexivity|]. split; [exact D | lia].
    + (* OTrigger *)
      rewrite Es. cbn [new_flw f_poisoned f_cfg f_inner mount_next with_inner code_of fst snd s_w GRelTz].
      split; [|split; [lia | intros b [H|H]; discriminate]].
      split; [repeat split; try assumption; apply Q|]. split; [reflexivity|]. split; [exact D | lia].
    + (* OTick *)
      cbn [fst snd s_w set_now wnow tick_ok GRelTz] in *.
      split; [|split; [reflexivity | intros b [H|H]; discriminate]].
      split; [repeat split; try assumption; apply Q|]. split; [exact Es|]. split; [apply dir_ts_tick; assumption | lia].
    + (* OSnap *)
      cbn [fst snd GRelTz]. split; [|split; [lia | intros b [H|H]; discriminate]].
      split; [repeat split; try assumption; apply Q|]. split; [exact Es|]. split; [exact D | lia].
Qed.

(* ------------------------------------------------------------------ one run under the size rule *)
Lemma grun_z c m e lo hi d0 : tscfg c (CSize m) -> tag_ok c -> years_ok e lo hi ->
  forall ops x a n, GRelTz c m e lo n x d0 a -> Forall basic_op ops -> Forall tick_ok ops ->
  (wnow (s_w x) + elapsed ops <= hi)%Z -> (N.of_nat (n + length ops) <= usize_max)%N ->
  GRelTz c m e lo (n + length ops) (fst (run x ops)) d0 (gs_run m c (vwT d0) a ops)
  /\ wnow (s_w (fst (run x ops))) = (wnow (s_w x) + elapsed ops)%Z
  /\ (forall i o, nth_error ops i = Some o -> forall b, (o = OWrite b \/ o = OPlain b) ->
        nth_error (snd (run x ops)) i
        = Some (ObsRes 0 (m <? N.of_nat (length (gcur c (vwT d0) (gs_run m c (vwT d0) a (firstn i ops)))))%N)).
Proof.
  intros Hcfg T Y. induction ops as [|o r IH]; intros x a n G Hb Htk Hhi Hmax.
  - cbn [run fst snd length elapsed gs_run]. rewrite Nat.add_0_r. split; [exact G|]. split; [lia|].
    intros i o H. destruct i; discriminate.
  - cbn [run]. inversion Hb as [|o' r' Ho Hr]; subst. inversion Htk as [|o' r' Hto Htr]; subst.
    cbn [elapsed length] in *. pose proof (elapsed_nonneg r Htr) as Er.
    assert (Hdt : (0 <= dt_of o)%Z) by (destruct o; cbn [dt_of tick_ok] in *; lia).
    destruct (gstep_z c m e lo hi n x d0 a o Hcfg T Y G Ho Hto ltac:(lia) ltac:(lia)) as [G1 [W1 C1]].
    destruct (step x o) as [x1 ob]. cbn [fst snd] in *.
    assert (Erot : g_step c (vwT d0) a o (rot_of ob) = g_step c (vwT d0) a o (m <? N.of_nat (length (gcur c (vwT d0) a)))%N).
    { destruct o; try (destruct a; reflexivity).
      - rewrite (C1 b (or_introl eq_refl)). reflexivity.
      - rewrite (C1 b (or_intror eq_refl)). reflexivity. }
    rewrite Erot in G1.
    destruct (IH x1 _ (S n) G1 Hr Htr ltac:(lia) ltac:(lia)) as [G2 [W2 C2]].
    destruct (run x1 r) as [x2 obs]. cbn [fst snd gs_run] in *.
    replace (n + S (length r)) with (S n + length r) by lia.
    split; [exact G2|]. split; [lia|].
    intros i o0 Hi b Hw. destruct i as [|i].
    + cbn in Hi. injection Hi as <-. cbn [nth_error firstn gs_run]. f_equal. apply (C1 b Hw).
    + cbn [nth_error firstn gs_run] in *. apply (C2 i o0 Hi b Hw).
Qed.

Lemma stop_z c m e lo n x d0 a : tscfg c (CSize m) -> GRelTz c m e lo n x d0 a ->
  exists d', IdleT c e lo n (fst (step x OStop)) d' /\ vwT d' = gview (vwT d0) a
    /\ wnow (s_w (fst (step x OStop))) = wnow (s_w x).
Proof.
  intros Hcfg G. destruct (GRelTz_GRelT _ _ _ _ _ _ _ _ G) as [a' [G' Ev]].
  destruct (stop_ts c (CSize m) e lo n x d0 a' Hcfg G') as [Id W]. exists (gviewT d0 a'). auto.
Qed.

(* ---- one whole run, after the clock has advanced by dt ---- *)
Lemma one_run_z c m e lo hi n x d dt ops :
  tscfg c (CSize m) -> tag_ok c -> years_ok e lo hi -> IdleT c e lo n x d -> (0 <= dt)%Z ->
  Forall basic_op ops -> Forall tick_ok ops ->
  (wnow (s_w x) + elapsed (run_t dt c ops) <= hi)%Z -> (N.of_nat (n + length (run_t dt c ops)) <= usize_max)%N ->
  exists d', IdleT c e lo (n + length (run_t dt c ops)) (fst (run x (run_t dt c ops))) d'
    /\ files_of (vwT d') = files_after (files_of (vwT d)) (c_append c) m ops
    /\ wnow (s_w (fst (run x (run_t dt c ops)))) = (wnow (s_w x) + elapsed (run_t dt c ops))%Z.
Proof.
  intros Hcfg T Y Id Hdt Hb Htk Hhi Hmax. unfold run_t in *.
  cbn [elapsed dt_of length] in Hhi, Hmax. rewrite elapsed_app in Hhi. rewrite app_length in Hmax. cbn [elapsed dt_of length] in Hhi, Hmax.
  pose proof (elapsed_nonneg ops Htk) as Eo.
  cbn [run].
  destruct (idle_tick c e lo n x d dt Hdt Id) as [Id0 W0]. destruct (step x (OTick dt)) as [xa oba]. cbn [fst] in Id0, W0.
  pose proof (start_ts c e lo n xa d Id0) as P0. pose proof (start_now xa c) as W1.
  destruct (step xa (OStart c)) as [x0 ob0]. cbn [fst] in P0, W1.
  assert (G0 : GRelTz c m e lo (S n) x0 d None) by exact P0.
  destruct (grun_z c m e lo hi d Hcfg T Y ops x0 None (S n) G0 Hb Htk ltac:(lia) ltac:(lia)) as [G1 [W2 _]].
  pose proof (fst_run_app ops [OStop] x0) as RA.
  destruct (run x0 (ops ++ [OStop])) as [x2 obs2]. cbn [fst] in RA |- *.
  destruct (run x0 ops) as [x1 obs1]. cbn [fst] in RA, G1, W2.
  destruct (stop_z c m e lo (S n + length ops) x1 d _ Hcfg G1) as [d' [Id2 [Ev W3]]].
  cbn [run] in RA. destruct (step x1 OStop) as [x2' ob2]. cbn [fst] in RA, Id2, W3. subst x2'.
  exists d'.
  split; [apply (idleT_mono c e lo (S n + length ops)); [cbn [length]; rewrite app_length; cbn [length]; lia | exact Id2]|].
  split; [rewrite Ev; apply gview_files; exact Hb|].
  cbn [elapsed dt_of]. rewrite elapsed_app. cbn [elapsed dt_of]. lia.
Qed.

(* the flags of a run that is still going on *)
Lemma one_run_flags_z c m e lo hi n x d dt ops i o b :
  tscfg c (CSize m) -> tag_ok c -> years_ok e lo hi -> IdleT c e lo n x d -> (0 <= dt)%Z ->
  Forall basic_op ops -> Forall tick_ok ops ->
  (wnow (s_w x) + dt + elapsed ops <= hi)%Z -> (N.of_nat (S n + length ops) <= usize_max)%N ->
  nth_error ops i = Some o -> (o = OWrite b \/ o = OPlain b) ->
  nth_error (snd (run x (OTick dt :: OStart c :: ops))) (S (S i))
  = Some (ObsRes 0 (m <? N.of_nat (length (cur_before m (start_of (files_of (vwT d)) (c_append c)) (firstn i ops))))%N).
Proof.
  intros Hcfg T Y Id Hdt Hb Htk Hhi Hmax Hi Hw.
  pose proof (elapsed_nonneg ops Htk) as Eo.
  cbn [run].
  destruct (idle_tick c e lo n x d dt Hdt Id) as [Id0 W0]. destruct (step x (OTick dt)) as [xa oba]. cbn [fst] in Id0, W0.
  pose proof (start_ts c e lo n xa d Id0) as P0. pose proof (start_now xa c) as W1.
  destruct (step xa (OStart c)) as [x0 ob0]. cbn [fst] in P0, W1.
  assert (G0 : GRelTz c m e lo (S n) x0 d None) by exact P0.
  destruct (grun_z c m e lo hi d Hcfg T Y ops x0 None (S n) G0 Hb Htk ltac:(lia) ltac:(lia)) as [_ [_ Hr]].
  destruct (run x0 ops) as [x1 obs1]. cbn [snd nth_error] in *.
  rewrite (Hr i o Hi b Hw), gcur_before. reflexivity.
Qed.

(* ------------------------------------------------------------------ sequences of runs *)
Definition strip (rs : list trun) : list (config * list op) := List.map (fun r => (snd (fst r), snd r)) rs.
Definition size_run (r : trun) : Prop := exists m, tscfg (snd (fst r)) (CSize m).

Lemma runs_rel_z sp utc e lo hi : years_ok e lo hi ->
  forall rs x d c0 n, c_spec c0 = sp -> c_utc c0 = utc -> Forall (run_ok_ts sp utc) rs -> Forall size_run rs ->
  IdleT c0 e lo n x d ->
  (wnow (s_w x) + elapsed (runs_ops_t rs) <= hi)%Z -> (N.of_nat (n + length (runs_ops_t rs)) <= usize_max)%N ->
  exists d', IdleT c0 e lo (n + length (runs_ops_t rs)) (fst (run x (runs_ops_t rs))) d'
    /\ files_of (vwT d') = runs_files (files_of (vwT d)) (strip rs)
    /\ wnow (s_w (fst (run x (runs_ops_t rs)))) = (wnow (s_w x) + elapsed (runs_ops_t rs))%Z.
Proof.
  intros Y. induction rs as [|[[dt c] ops] r IH]; intros x d c0 n Ec0 Eu0 Hrs Hsz Id Hhi Hmax.
  - cbn [runs_ops_t strip List.map runs_files run fst length elapsed]. rewrite Nat.add_0_r. exists d.
    split; [exact Id|]. split; [reflexivity | lia].
  - inversion Hrs as [|r0 r' Hok Hr]; subst. inversion Hsz as [|r0 r' [m Hcfg] Hsr]; subst. cbn [fst snd] in Hcfg.
    apply run_ok_ts_elim in Hok.
    destruct Hok as [Hdt [Ec [Eu [_ [T [Hb Htk]]]]]].
    cbn [runs_ops_t] in *. rewrite elapsed_app in Hhi. rewrite app_length in Hmax.
    pose proof (runs_elapsed_nonneg _ _ r Hr) as Er.
    assert (Id' : IdleT c e lo n x d) by (apply (idleT_spec c0 c); congruence).
    destruct (one_run_z c m e lo hi n x d dt ops Hcfg T Y Id' Hdt Hb Htk ltac:(lia) ltac:(lia)) as [d1 [Id1 [F1 W1]]].
    rewrite fst_run_app. set (x1 := fst (run x (run_t dt c ops))) in *.
    assert (Id1' : IdleT c0 e lo (n + length (run_t dt c ops)) x1 d1) by (apply (idleT_spec c c0); congruence).
    destruct (IH x1 d1 c0 (n + length (run_t dt c ops)) eq_refl eq_refl Hr Hsr Id1' ltac:(lia) ltac:(lia)) as [d2 [Id2 [F2 W2]]].
    exists d2. rewrite app_length, elapsed_app, Nat.add_assoc.
    split; [exact Id2|]. split; [|lia].
    rewrite F2, F1. cbn [strip List.map runs_files fst snd]. destruct Hcfg as [-> _]. reflexivity.
Qed.

Lemma runs_idle_z sp utc t0 off rs hi :
  Forall (run_ok_ts sp utc) rs -> Forall size_run rs ->
  let e := if utc then 0%Z else off in
  years_ok e t0 hi -> (t0 + elapsed (runs_ops_t rs) <= hi)%Z -> (N.of_nat (length (runs_ops_t rs)) <= usize_max)%N ->
  exists d', IdleT (sp_config_utc sp utc) e t0 (length (runs_ops_t rs)) (fst (run (sys0 t0 off) (runs_ops_t rs))) d'
    /\ files_of (vwT d') = runs_files [] (strip rs)
    /\ wnow (s_w (fst (run (sys0 t0 off) (runs_ops_t rs)))) = (t0 + elapsed (runs_ops_t rs))%Z.
Proof.
  intros Hrs Hsz e Y Hhi Hmax.
  pose proof (idleT0 (sp_config_utc sp utc) t0 off) as Id0. change (ts_e (sp_config_utc sp utc) off) with e in Id0.
  destruct (runs_rel_z sp utc e t0 hi Y rs (sys0 t0 off) None (sp_config_utc sp utc) 0 eq_refl eq_refl Hrs Hsz Id0
              ltac:(cbn [sys0 s_w world0 wnow]; lia) ltac:(cbn [Nat.add]; exact Hmax)) as [d' [Id [F W]]].
  cbn [sys0 s_w world0 wnow] in W. cbn [Nat.add] in Id. exists d'. split; [exact Id|]. split; [exact F | exact W].
Qed.

(* C08 for any number of runs on one directory under Timestamps naming, each run with its own size limit, buffer capacity
   and append flag; before each run (and within the runs) the clock may advance.  The directory is empty and nothing is
   expected, or what is expected - the fold of files_after over the runs (NumAppendPartition.v: with append the content found
   counts, without append rCURRENT is closed at the first write, a run without a write changes nothing) - is closed ++ [cur]
   and the directory consists exactly of the closed files, named by their keys in the order of closing, and rCURRENT. *)
Theorem timestamps_runs_partition sp utc t0 off rs :
  Forall (run_ok_ts sp utc) rs -> Forall (fun r => exists m, tscfg (snd (fst r)) (CSize m)) rs ->
  let e := if utc then 0%Z else off in
  (0 <= t0 + e)%Z -> (t0 + elapsed (runs_ops_t rs) + e < sec_max)%Z -> (N.of_nat (length (runs_ops_t rs)) <= usize_max)%N ->
  let f := wfs (s_w (fst (run (sys0 t0 off) (runs_ops_t rs)))) in
  (runs_files [] (strip rs) = [] /\ names f = [])
  \/ exists keys closed cur,
       runs_files [] (strip rs) = closed ++ [cur]
       /\ (forall c, c_spec c = sp -> ts_view c e f keys closed cur)
       /\ keys_ok keys
       /\ (forall k, In k keys -> (t0 <= fst k <= t0 + elapsed (runs_ops_t rs))%Z).
Proof.
  intros Hrs Hsz e Hlo Hhi Hmax f.
  assert (Y : years_ok e t0 (t0 + elapsed (runs_ops_t rs))) by (split; assumption).
  destruct (runs_idle_z sp utc t0 off rs _ Hrs Hsz Y ltac:(lia) Hmax) as [d' [Id [F W]]]. fold e in Id. fold f in Id.
  destruct d' as [[[[keys closed] cur] ts]|]; cbn [vwT files_of] in F.
  - right. destruct (idleT_view sp (sp_config_utc sp utc) e t0 _ _ keys closed cur ts eq_refl Id) as [V [K [Rg Rt]]].
    exists keys, closed, cur. split; [symmetry; exact F|]. split; [intros c Ec; exact (proj1 (V c Ec))|]. split; [exact K|].
    intros k Ik. specialize (Rg k Ik). lia.
  - left. split; [symmetry; exact F | exact (idleT_none _ _ _ _ _ Id)].
Qed.
Print Assumptions timestamps_runs_partition.

(* the rotation flag of every write of a run that follows any number of runs (the run is still going on): a rotation is
   reported exactly when the bytes counted for the current file exceed the limit; they start with the content found in
   rCURRENT iff the run appends *)
Theorem timestamps_runs_rotates_iff sp utc t0 off rs dt c m ops i o b :
  Forall (run_ok_ts sp utc) rs -> Forall (fun r => exists m, tscfg (snd (fst r)) (CSize m)) rs ->
  run_ok_ts sp utc (dt, c, ops) -> tscfg c (CSize m) ->
  let e := if utc then 0%Z else off in
  (0 <= t0 + e)%Z -> (t0 + elapsed (runs_ops_t rs) + dt + elapsed ops + e < sec_max)%Z ->
  (N.of_nat (length (runs_ops_t rs) + S (length ops)) <= usize_max)%N ->
  nth_error ops i = Some o -> (o = OWrite b \/ o = OPlain b) ->
  nth_error (snd (run (fst (run (sys0 t0 off) (runs_ops_t rs))) (OTick dt :: OStart c :: ops))) (S (S i))
  = Some (ObsRes 0 (m <? N.of_nat (length (cur_before m (start_of (runs_files [] (strip rs)) (c_append c)) (firstn i ops))))%N).
Proof.
  intros Hrs Hsz Hok Hcfg e Hlo Hhi Hmax Hi Hw.
  apply run_ok_ts_elim in Hok. destruct Hok as [Hdt [Ec [Eu [_ [T [Hb Htk]]]]]].
  pose proof (elapsed_nonneg ops Htk) as Eo.
  set (hi := (t0 + elapsed (runs_ops_t rs) + dt + elapsed ops)%Z).
  assert (Y : years_ok e t0 hi) by (split; [exact Hlo | unfold hi; lia]).
  destruct (runs_idle_z sp utc t0 off rs hi Hrs Hsz Y ltac:(unfold hi; lia) ltac:(lia)) as [d' [Id [F W]]]. fold e in Id.
  rewrite <- F.
  apply (one_run_flags_z c m e t0 hi (length (runs_ops_t rs)) _ d' dt ops i o b Hcfg T Y); try assumption.
  - apply (idleT_spec (sp_config_utc sp utc) c); [symmetry; exact Ec | symmetry; exact Eu | exact Id].
  - rewrite W. unfold hi. lia.
  - lia.
Qed.
Print Assumptions timestamps_runs_rotates_iff.

(* ------------------------------------------------------------------ two runs *)
Lemma partition_nonnil lim items : forall cl cu, partition lim cl cu items <> [].
Proof.
  induction items as [|[r|] rest IH]; intros cl cu; cbn [partition].
  - destruct cl; discriminate.
  - destruct (lim <? N.of_nat (length cu))%N; apply IH.
  - apply IH.
Qed.

Lemma expected_some_nonnil lim s items : expected_files lim (Some s) items <> [].
Proof. unfold expected_files. destruct (has_rec items); [apply partition_nonnil | discriminate]. Qed.

Lemma runs_files_two dt1 dt2 c1 c2 m1 m2 ops1 ops2 : tscfg c1 (CSize m1) -> tscfg c2 (CSize m2) ->
  runs_files [] (strip [(dt1, c1, ops1); (dt2, c2, ops2)])
  = files_after (expected_files m1 None (items false ops1)) (c_append c2) m2 ops2.
Proof.
  intros [E1 _] [E2 _]. cbn [strip List.map runs_files fst snd]. rewrite E1, E2, files_after_nil. reflexivity.
Qed.

Definition two_runs (dt1 : Z) (c1 : config) (ops1 : list op) (dt2 : Z) (c2 : config) (ops2 : list op) : list trun :=
  [(dt1, c1, ops1); (dt2, c2, ops2)].

(* 1. Two runs, the second one appending: the content found in rCURRENT counts from the first write on; the file that was
   rCURRENT is continued and - when it is closed - named by the second of ITS creation in run 1. *)
Theorem timestamps_append_partition sp utc t0 off dt1 c1 m1 ops1 dt2 c2 m2 ops2 closed1 cur1 :
  run_ok_ts sp utc (dt1, c1, ops1) -> run_ok_ts sp utc (dt2, c2, ops2) ->
  tscfg c1 (CSize m1) -> tscfg c2 (CSize m2) -> c_append c2 = true ->
  expected_files m1 None (items false ops1) = closed1 ++ [cur1] ->
  let rs := two_runs dt1 c1 ops1 dt2 c2 ops2 in
  let e := if utc then 0%Z else off in
  (0 <= t0 + e)%Z -> (t0 + elapsed (runs_ops_t rs) + e < sec_max)%Z -> (N.of_nat (length (runs_ops_t rs)) <= usize_max)%N ->
  let f := wfs (s_w (fst (run (sys0 t0 off) (runs_ops_t rs)))) in
  exists keys closed cur,
    closed1 ++ expected_files m2 (Some cur1) (items false ops2) = closed ++ [cur]
    /\ (forall c, c_spec c = sp -> ts_view c e f keys closed cur)
    /\ keys_ok keys
    /\ (forall k, In k keys -> (t0 <= fst k <= t0 + elapsed (runs_ops_t rs))%Z).
Proof.
  intros Hok1 Hok2 Hcfg1 Hcfg2 Happ E1 rs e Hlo Hhi Hmax f.
  assert (Hrs : Forall (run_ok_ts sp utc) rs) by (unfold rs, two_runs; apply Forall_cons; [exact Hok1|]; apply Forall_cons; [exact Hok2 | apply Forall_nil]).
  assert (Hsz : Forall (fun r => exists m, tscfg (snd (fst r)) (CSize m)) rs)
    by (unfold rs, two_runs; apply Forall_cons; [exists m1; exact Hcfg1|]; apply Forall_cons; [exists m2; exact Hcfg2 | apply Forall_nil]).
  pose proof (timestamps_runs_partition sp utc t0 off rs Hrs Hsz Hlo Hhi Hmax) as H. cbv zeta in H. fold e f in H.
  assert (RF : runs_files [] (strip rs) = files_after (expected_files m1 None (items false ops1)) (c_append c2) m2 ops2)
    by exact (runs_files_two dt1 dt2 c1 c2 m1 m2 ops1 ops2 Hcfg1 Hcfg2).
  rewrite RF, E1, Happ, files_after_append in H.
  destruct H as [[H _]|H]; [|exact H].
  exfalso. apply app_eq_nil in H. destruct H as [_ H]. exact (expected_some_nonnil _ _ _ H).
Qed.
Print Assumptions timestamps_append_partition.

(* the rotation flags of the appending run.  The operations before the first write of the run do not count
   (from_first_write): the writer opens rCURRENT at its first write, a trigger before that does nothing. *)
Theorem timestamps_append_rotates_iff sp utc t0 off dt1 c1 m1 ops1 dt2 c2 m2 ops2 closed1 cur1 i o b :
  run_ok_ts sp utc (dt1, c1, ops1) -> run_ok_ts sp utc (dt2, c2, ops2) ->
  tscfg c1 (CSize m1) -> tscfg c2 (CSize m2) -> c_append c2 = true ->
  expected_files m1 None (items false ops1) = closed1 ++ [cur1] ->
  let e := if utc then 0%Z else off in
  (0 <= t0 + e)%Z -> (t0 + elapsed (run_t dt1 c1 ops1) + dt2 + elapsed ops2 + e < sec_max)%Z ->
  (N.of_nat (length (run_t dt1 c1 ops1) + S (length ops2)) <= usize_max)%N ->
  nth_error ops2 i = Some o -> (o = OWrite b \/ o = OPlain b) ->
  nth_error (snd (run (fst (run (sys0 t0 off) (run_t dt1 c1 ops1))) (OTick dt2 :: OStart c2 :: ops2))) (S (S i))
  = Some (ObsRes 0 (m2 <? N.of_nat (length (cur_of (s_run m2 (Some ([], cur1)) (from_first_write (firstn i ops2))))))%N).
Proof.
  intros Hok1 Hok2 Hcfg1 Hcfg2 Happ E1 e Hlo Hhi Hmax Hi Hw.
  assert (Hrs : Forall (run_ok_ts sp utc) [(dt1, c1, ops1)]) by (apply Forall_cons; [exact Hok1 | apply Forall_nil]).
  assert (Hsz : Forall (fun r => exists m, tscfg (snd (fst r)) (CSize m)) [(dt1, c1, ops1)])
    by (apply Forall_cons; [exists m1; exact Hcfg1 | apply Forall_nil]).
  pose proof (timestamps_runs_rotates_iff sp utc t0 off [(dt1, c1, ops1)] dt2 c2 m2 ops2 i o b Hrs Hsz Hok2 Hcfg2) as H.
  cbv zeta in H. cbn [runs_ops_t] in H. rewrite app_nil_r in H. fold e in H.
  rewrite (H Hlo Hhi Hmax Hi Hw). cbn [strip List.map runs_files fst snd]. destruct Hcfg1 as [-> _].
  rewrite files_after_nil, E1, Happ, start_of_append. reflexivity.
Qed.
Print Assumptions timestamps_append_rotates_iff.

(* 2. Two runs, the second one NOT appending: whatever the first run left (also nothing) stays; rCURRENT of run 1 is closed
   - under the second of its creation - when run 2 writes for the first time; the files of run 2 are those of a fresh start. *)
Theorem timestamps_noappend_partition sp utc t0 off dt1 c1 m1 ops1 dt2 c2 m2 ops2 :
  run_ok_ts sp utc (dt1, c1, ops1) -> run_ok_ts sp utc (dt2, c2, ops2) ->
  tscfg c1 (CSize m1) -> tscfg c2 (CSize m2) -> c_append c2 = false ->
  let rs := two_runs dt1 c1 ops1 dt2 c2 ops2 in
  let e := if utc then 0%Z else off in
  (0 <= t0 + e)%Z -> (t0 + elapsed (runs_ops_t rs) + e < sec_max)%Z -> (N.of_nat (length (runs_ops_t rs)) <= usize_max)%N ->
  let f := wfs (s_w (fst (run (sys0 t0 off) (runs_ops_t rs)))) in
  let files := expected_files m1 None (items false ops1) ++ expected_files m2 None (items false ops2) in
  (files = [] /\ names f = [])
  \/ exists keys closed cur,
       files = closed ++ [cur]
       /\ (forall c, c_spec c = sp -> ts_view c e f keys closed cur)
       /\ keys_ok keys
       /\ (forall k, In k keys -> (t0 <= fst k <= t0 + elapsed (runs_ops_t rs))%Z).
Proof.
  intros Hok1 Hok2 Hcfg1 Hcfg2 Happ rs e Hlo Hhi Hmax f files.
  assert (Hrs : Forall (run_ok_ts sp utc) rs) by (unfold rs, two_runs; apply Forall_cons; [exact Hok1|]; apply Forall_cons; [exact Hok2 | apply Forall_nil]).
  assert (Hsz : Forall (fun r => exists m, tscfg (snd (fst r)) (CSize m)) rs)
    by (unfold rs, two_runs; apply Forall_cons; [exists m1; exact Hcfg1|]; apply Forall_cons; [exists m2; exact Hcfg2 | apply Forall_nil]).
  pose proof (timestamps_runs_partition sp utc t0 off rs Hrs Hsz Hlo Hhi Hmax) as H. cbv zeta in H. fold e f in H.
  assert (RF : runs_files [] (strip rs) = files_after (expected_files m1 None (items false ops1)) (c_append c2) m2 ops2)
    by exact (runs_files_two dt1 dt2 c1 c2 m1 m2 ops1 ops2 Hcfg1 Hcfg2).
  rewrite RF, Happ in H.
  unfold files_after in H. exact H.
Qed.
Print Assumptions timestamps_noappend_partition.

Theorem timestamps_noappend_rotates_iff sp utc t0 off dt1 c1 m1 ops1 dt2 c2 m2 ops2 i o b :
  run_ok_ts sp utc (dt1, c1, ops1) -> run_ok_ts sp utc (dt2, c2, ops2) ->
  tscfg c1 (CSize m1) -> tscfg c2 (CSize m2) -> c_append c2 = false ->
  let e := if utc then 0%Z else off in
  (0 <= t0 + e)%Z -> (t0 + elapsed (run_t dt1 c1 ops1) + dt2 + elapsed ops2 + e < sec_max)%Z ->
  (N.of_nat (length (run_t dt1 c1 ops1) + S (length ops2)) <= usize_max)%N ->
  nth_error ops2 i = Some o -> (o = OWrite b \/ o = OPlain b) ->
  nth_error (snd (run (fst (run (sys0 t0 off) (run_t dt1 c1 ops1))) (OTick dt2 :: OStart c2 :: ops2))) (S (S i))
  = Some (ObsRes 0 (m2 <? N.of_nat (length (cur_of (s_run m2 None (firstn i ops2)))))%N).
Proof.
  intros Hok1 Hok2 Hcfg1 Hcfg2 Happ e Hlo Hhi Hmax Hi Hw.
  assert (Hrs : Forall (run_ok_ts sp utc) [(dt1, c1, ops1)]) by (apply Forall_cons; [exact Hok1 | apply Forall_nil]).
  assert (Hsz : Forall (fun r => exists m, tscfg (snd (fst r)) (CSize m)) [(dt1, c1, ops1)])
    by (apply Forall_cons; [exists m1; exact Hcfg1 | apply Forall_nil]).
  pose proof (timestamps_runs_rotates_iff sp utc t0 off [(dt1, c1, ops1)] dt2 c2 m2 ops2 i o b Hrs Hsz Hok2 Hcfg2) as H.
  cbv zeta in H. cbn [runs_ops_t] in H. rewrite app_nil_r in H. fold e in H.
  rewrite (H Hlo Hhi Hmax Hi Hw). unfold start_of. rewrite Happ. reflexivity.
Qed.
Print Assumptions timestamps_noappend_rotates_iff.

(* ------------------------------------------------------------------ examples (non-vacuity) *)
Open Scope string_scope.
Definition tap_c1 : config := ext_cfg rs_sp false (CSize 3) None false.
Definition tap_c2 : config := ext_cfg rs_sp true (CSize 5) (Some 3%nat) false.      (* appending, buffered *)
Definition tap_c2n : config := ext_cfg rs_sp false (CSize 5) (Some 3%nat) false.    (* not appending *)
Definition tap_ops1 : list op := [OWrite (bs "abcd"); OWrite (bs "ef"); OTrigger; OWrite (bs "ghij")].
Definition tap_ops2 : list op := [OFlush; OWrite (bs "kl"); OTick 7; OWrite (bs "mn"); OPlain (bs "op")].
Definition tap_rs : list trun := two_runs 0 tap_c1 tap_ops1 5 tap_c2 tap_ops2.
Definition tap_rsn : list trun := two_runs 0 tap_c1 tap_ops1 5 tap_c2n tap_ops2.
Definition tap_rs4 : list trun :=
  [ (0%Z, tap_c1, tap_ops1); (5%Z, tap_c2, tap_ops2); (1%Z, tap_c2n, [OTrigger; OFlush]);
    (2%Z, ext_cfg rs_sp false (CSize 1) None false, [OPlain (bs "qr"); OWrite (bs "s")]) ].

Ltac tap_run_ok :=
  apply run_ok_ts_elim_rev; split; [lia|]; split; [reflexivity|]; split; [reflexivity|];
  split; [eexists; apply ext_cfg_ok; reflexivity|]; split; [apply ext_cfg_tag_ok|];
  split; [repeat constructor | repeat (apply Forall_cons; [cbn [tick_ok]; first [exact Logic.I | lia]|]); apply Forall_nil].

Lemma tap_ok1 : run_ok_ts rs_sp false (0%Z, tap_c1, tap_ops1). Proof. tap_run_ok. Qed.
Lemma tap_ok2 : run_ok_ts rs_sp false (5%Z, tap_c2, tap_ops2). Proof. tap_run_ok. Qed.
Lemma tap_ok2n : run_ok_ts rs_sp false (5%Z, tap_c2n, tap_ops2). Proof. tap_run_ok. Qed.

(* run 1 (limit 3, second 0) leaves abcd | ef | ghij (rCURRENT = ghij, created in second 0).  Run 2 (limit 5, append), started
   in second 5: "kl" is appended to the 4 bytes found (4 <= 5: no rotation), the clock advances to second 12, "mn" rotates
   because the 4 bytes found count (6 > 5) - a fresh start would not rotate here (2 <= 5) - and "ghijkl" is closed under the
   second of ITS creation, 0, the third name of that second *)
Example ts_append_partition_dir :
  snap_of (fst (run (sys0 0 0) (runs_ops_t tap_rs)))
  = [ (bs "app_r1970-01-01_00-00-00.log", 0%N, bs "abcd");
      (bs "app_r1970-01-01_00-00-00.restart-0000.log", 0%N, bs "ef");
      (bs "app_r1970-01-01_00-00-00.restart-0001.log", 0%N, bs "ghijkl");
      (bs "app_rCURRENT.log", 0%N, bs "mnop") ]
  /\ expected_files 3 None (items false tap_ops1) = [bs "abcd"; bs "ef"] ++ [bs "ghij"]
  /\ expected_files 5 (Some (bs "ghij")) (items false tap_ops2) = [bs "ghijkl"; bs "mnop"]
  /\ expected_files 5 None (items false tap_ops2) = [bs "klmnop"].
Proof. repeat split; vm_compute; reflexivity. Qed.

(* the theorem applies: its hypotheses can be met, and it yields this view *)
Example ts_append_partition_instance :
  exists keys closed cur,
    [bs "abcd"; bs "ef"; bs "ghijkl"; bs "mnop"] = closed ++ [cur]
    /\ (forall c, c_spec c = rs_sp -> ts_view c 0 (wfs (s_w (fst (run (sys0 0 0) (runs_ops_t tap_rs))))) keys closed cur)
    /\ keys_ok keys /\ (forall k, In k keys -> (0 <= fst k <= 12)%Z).
Proof.
  change [bs "abcd"; bs "ef"; bs "ghijkl"; bs "mnop"] with ([bs "abcd"; bs "ef"] ++ expected_files 5 (Some (bs "ghij")) (items false tap_ops2)).
  apply (timestamps_append_partition rs_sp false 0 0 0 tap_c1 3 tap_ops1 5 tap_c2 5 tap_ops2 [bs "abcd"; bs "ef"] (bs "ghij") tap_ok1 tap_ok2).
  - apply ext_cfg_ok. reflexivity.
  - apply ext_cfg_ok. reflexivity.
  - reflexivity.
  - vm_compute. reflexivity.
  - change (0 <= 0)%Z. lia.
  - change (12 + 0 < sec_max)%Z. unfold sec_max. lia.
  - vm_compute. discriminate.
Qed.

(* the flags of run 2 as observed (tick, start, flush, "kl", tick, "mn", "op"), and as the theorem computes them
   (operation 3 of run 2 is OWrite "mn") *)
Example ts_append_rotates_flags :
  List.map rot_of (snd (run (fst (run (sys0 0 0) (run_t 0 tap_c1 tap_ops1))) (OTick 5 :: OStart tap_c2 :: tap_ops2)))
  = [false; false; false; false; false; true; false]
  /\ (5 <? N.of_nat (length (cur_of (s_run 5 (Some ([], bs "ghij")) (from_first_write (firstn 3 tap_ops2))))))%N = true
  /\ (5 <? N.of_nat (length (cur_of (s_run 5 None (firstn 3 tap_ops2)))))%N = false.
Proof. vm_compute. repeat split. Qed.

Example ts_append_rotates_instance :
  nth_error (snd (run (fst (run (sys0 0 0) (run_t 0 tap_c1 tap_ops1))) (OTick 5 :: OStart tap_c2 :: tap_ops2))) 5
  = Some (ObsRes 0 true).
Proof.
  rewrite (timestamps_append_rotates_iff rs_sp false 0 0 0 tap_c1 3 tap_ops1 5 tap_c2 5 tap_ops2 [bs "abcd"; bs "ef"] (bs "ghij")
             3 (OWrite (bs "mn")) (bs "mn") tap_ok1 tap_ok2).
  - vm_compute. reflexivity.
  - apply ext_cfg_ok. reflexivity.
  - apply ext_cfg_ok. reflexivity.
  - reflexivity.
  - vm_compute. reflexivity.
  - change (0 <= 0)%Z. lia.
  - change (0 + 0 + 5 + 7 + 0 < sec_max)%Z. unfold sec_max. lia.
  - vm_compute. discriminate.
  - reflexivity.
  - left. reflexivity.
Qed.

(* without append: rCURRENT of run 1 ("ghij", created in second 0) is closed at the first write of run 2 - in second 5 - under
   the third name of second 0, and run 2 partitions as from a fresh start: no write of run 2 rotates *)
Example ts_noappend_partition_dir :
  snap_of (fst (run (sys0 0 0) (runs_ops_t tap_rsn)))
  = [ (bs "app_r1970-01-01_00-00-00.log", 0%N, bs "abcd");
      (bs "app_r1970-01-01_00-00-00.restart-0000.log", 0%N, bs "ef");
      (bs "app_r1970-01-01_00-00-00.restart-0001.log", 0%N, bs "ghij");
      (bs "app_rCURRENT.log", 0%N, bs "klmnop") ]
  /\ List.map rot_of (snd (run (fst (run (sys0 0 0) (run_t 0 tap_c1 tap_ops1))) (OTick 5 :: OStart tap_c2n :: tap_ops2)))
     = [false; false; false; false; false; false; false].
Proof. split; vm_compute; reflexivity. Qed.

Example ts_noappend_partition_instance :
  exists keys closed cur,
    [bs "abcd"; bs "ef"; bs "ghij"] ++ [bs "klmnop"] = closed ++ [cur]
    /\ (forall c, c_spec c = rs_sp -> ts_view c 0 (wfs (s_w (fst (run (sys0 0 0) (runs_ops_t tap_rsn))))) keys closed cur)
    /\ keys_ok keys /\ (forall k, In k keys -> (0 <= fst k <= 12)%Z).
Proof.
  destruct (timestamps_noappend_partition rs_sp false 0 0 0 tap_c1 3 tap_ops1 5 tap_c2n 5 tap_ops2 tap_ok1 tap_ok2n) as [[H _]|H];
    [apply ext_cfg_ok; reflexivity | apply ext_cfg_ok; reflexivity | reflexivity | change (0 <= 0)%Z; lia
     | change (12 + 0 < sec_max)%Z; unfold sec_max; lia | vm_compute; discriminate | vm_compute in H; discriminate H | exact H].
Qed.

(* four runs: fresh / append / no write at all (it even triggers a rotation: nothing happens) / no append *)
Example ts_runs_partition_dir :
  snap_of (fst (run (sys0 0 0) (runs_ops_t tap_rs4)))
  = [ (bs "app_r1970-01-01_00-00-00.log", 0%N, bs "abcd");
      (bs "app_r1970-01-01_00-00-00.restart-0000.log", 0%N, bs "ef");
      (bs "app_r1970-01-01_00-00-00.restart-0001.log", 0%N, bs "ghijkl");
      (bs "app_r1970-01-01_00-00-12.log", 0%N, bs "mnop");
      (bs "app_r1970-01-01_00-00-15.log", 0%N, bs "qr");
      (bs "app_rCURRENT.log", 0%N, bs "s") ]
  /\ runs_files [] (strip tap_rs4) = [bs "abcd"; bs "ef"; bs "ghijkl"; bs "mnop"; bs "qr"; bs "s"].
Proof. split; vm_compute; reflexivity. Qed.

Lemma tap_rs4_ok : Forall (run_ok_ts rs_sp false) tap_rs4.
Proof. unfold tap_rs4. repeat (apply Forall_cons; [tap_run_ok|]). apply Forall_nil. Qed.

Lemma tap_rs4_size : Forall (fun r => exists m, tscfg (snd (fst r)) (CSize m)) tap_rs4.
Proof. unfold tap_rs4. repeat (apply Forall_cons; [eexists; apply ext_cfg_ok; reflexivity|]). apply Forall_nil. Qed.

Example ts_runs_partition_instance :
  exists keys closed cur,
    [bs "abcd"; bs "ef"; bs "ghijkl"; bs "mnop"; bs "qr"; bs "s"] = closed ++ [cur]
    /\ (forall c, c_spec c = rs_sp -> ts_view c 0 (wfs (s_w (fst (run (sys0 0 0) (runs_ops_t tap_rs4))))) keys closed cur)
    /\ keys_ok keys /\ (forall k, In k keys -> (0 <= fst k <= 15)%Z).
Proof.
  destruct (timestamps_runs_partition rs_sp false 0 0 tap_rs4 tap_rs4_ok tap_rs4_size) as [[H _]|H];
    [change (0 <= 0)%Z; lia | change (15 + 0 < sec_max)%Z; unfold sec_max; lia | vm_compute; discriminate
     | vm_compute in H; discriminate H | exact H].
Qed.

(* the flag of the second write of the fourth run ("s": the current file holds "qr", 2 > 1), by the theorem *)
Example ts_runs_rotates_instance :
  nth_error (snd (run (fst (run (sys0 0 0) (runs_ops_t (firstn 3 tap_rs4))))
                      (OTick 2 :: OStart (ext_cfg rs_sp false (CSize 1) None false) :: [OPlain (bs "qr"); OWrite (bs "s")]))) 3
  = Some (ObsRes 0 true).
Proof.
  rewrite (timestamps_runs_rotates_iff rs_sp false 0 0 (firstn 3 tap_rs4) 2 (ext_cfg rs_sp false (CSize 1) None false) 1
             [OPlain (bs "qr"); OWrite (bs "s")] 1 (OWrite (bs "s")) (bs "s")).
  - vm_compute. reflexivity.
  - apply FL.Flw.NumDTheorems.firstn_Forall. exact tap_rs4_ok.
  - apply FL.Flw.NumDTheorems.firstn_Forall. exact tap_rs4_size.
  - tap_run_ok.
  - apply ext_cfg_ok. reflexivity.
  - change (0 <= 0)%Z. lia.
  - change (0 + 13 + 2 + 0 + 0 < sec_max)%Z. unfold sec_max. lia.
  - vm_compute. discriminate.
  - reflexivity.
  - left. reflexivity.
Qed.

(* as for Numbers naming (NumAppendPartition.append_trigger_before_first_write): a trigger issued on the appending writer
   before its first write does nothing, the content found still counts at the first write (limit 3, "ghij" found: the
   first write rotates); hence from_first_write in the statements *)
Example ts_append_trigger_before_first_write :
  nth_error (snd (run (fst (run (sys0 0 0) (run_t 0 tap_c1 tap_ops1)))
                      (OTick 5 :: OStart (ext_cfg rs_sp true (CSize 3) (Some 3%nat) false) :: [OTrigger; OWrite (bs "kl")]))) 3
  = Some (ObsRes 0 true)
  /\ (3 <? N.of_nat (length (cur_of (s_run 3 (Some ([], bs "ghij")) (firstn 1 [OTrigger; OWrite (bs "kl")])))))%N = false
  /\ (3 <? N.of_nat (length (cur_of (s_run 3 (Some ([], bs "ghij")) (from_first_write (firstn 1 [OTrigger; OWrite (bs "kl")]))))))%N = true.
Proof. vm_compute. repeat split. Qed.
