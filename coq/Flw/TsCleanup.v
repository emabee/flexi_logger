(* Timestamps naming (rCURRENT + closed files r<time stamp>[.restart-NNNN]) with a cleanup strategy: "the cleanup keeps
   exactly the newest files, compresses losslessly and never touches rCURRENT", end to end, for every history
   OStart c :: ops ++ [OStop]  of basic operations from the empty directory with a clock that does not go backwards.
   Parts: GenCleanup.v, GenCleanupRun.v, TsCleanupNames.v (listing = keys in descending order; collision_free_infix after cleanups),
   TsCleanupRun.v (invariant, rotation, run; theorem timestamps_cleanup_stream).  Here: the properties spelled out
   (timestamps_cleanup), no operation fails or panics (timestamps_cleanup_no_panic), the version for a size criterion
   (timestamps_cleanup_partition), examples, findings, and the comparison with the same history under KNever
   (timestamps_cleanup_vs_never).

   WHAT THE MODEL DOES (theorem timestamps_cleanup; instances in the section `examples`).  A closed file is named by the second in which
   it was STARTED as rCURRENT and its position among the files of that second; `keys` lists the keys of all closed files in
   the order of closing, L = number of closed files.  rCURRENT is not part of the listing that the cleanup works on and does
   not count for the limits (as for Numbers naming).  With (n, m) = klim k:
     - the plain files are those of the keys at the positions L-n .. L-1: the newest n closed files;
     - the archives are the m closed files before them, each with exactly the content of the file it replaces;
     - everything older is gone; rCURRENT is never compressed or removed.
   FINDING (names_reused): with n + m = 0 every closed file is removed at once, and the next file closed in the same second
   gets the same name again - there is no restart counter any more. *)
Require Import FL.Base.Bytes FL.Fs.Fs FL.Fs.FsFacts FL.Time.TsFormat FL.Names.FileSpec FL.Flw.Model FL.Flw.NumInv
  FL.Flw.Run FL.Flw.NumRun FL.Oracles.O_Flw FL.Flw.NumTheorems FL.Flw.NumKillRestart FL.Flw.NumRestart
  FL.Flw.NumCleanupNames FL.Flw.NumCleanupStep FL.Flw.NumCleanupRun FL.Flw.NumCleanup FL.Flw.TsTime FL.Flw.TsNames
  FL.Flw.TsInv FL.Flw.TsRun FL.Flw.TsTheorems FL.Flw.GenCleanup FL.Flw.GenCleanupRun FL.Flw.TsCleanupNames
  FL.Flw.TsCleanupRun.
From Coq Require Import Lia.
Open Scope nat_scope.

(* ------------------------------------------------------------------ 1. THE PROPERTIES *)
(* (n, m) = klim k: n = number of closed files kept as they are, m = number of files kept as archives.  closed, cur: the
   reader's view that the run would leave without cleanup (timestamps_cleanup_vs_never; with a size criterion it is the
   greedy partition, timestamps_cleanup_partition).  K i: the name of the i-th closed file, G i: the name of its archive. *)
Theorem timestamps_cleanup c crit k n m t0 off ops closed cur :
  tskcfg c crit k -> klim k = Some (n, m) -> tag_ok c -> sfx_ok (c_spec c) ->
  Forall basic_op ops -> Forall tick_ok ops ->
  (0 <= t0 + ts_e c off)%Z -> (t0 + elapsed ops + ts_e c off < sec_max)%Z -> (N.of_nat (length ops) <= usize_max)%N ->
  a_run None ops (snd (run (fst (step (sys0 t0 off) (OStart c))) ops)) = Some (closed, cur) ->
  let f := wfs (s_w (fst (run (sys0 t0 off) (OStart c :: ops ++ [OStop])))) in
  let L := length closed in let lo := L - (n + m) in let mid := L - n in
  (* what was written *)
  concat closed ++ cur = written ops
  /\ exists keys : list key,
       let K i := kname c (ts_e c off) (nth i keys kd) in
       let G i := gz_name (K i) in
       (* the keys: one for every closed file; seconds non-decreasing, within a second the positions 0, 1, 2, .. *)
       length keys = L /\ keys_ok keys /\ (forall key, In key keys -> (t0 <= fst key <= t0 + elapsed ops)%Z)
       (* exactly these names exist, each once *)
       /\ (forall x, (exists j, lookup f x = Some j) <->
             x = cname c \/ (exists i, mid <= i < L /\ x = K i) \/ (exists i, lo <= i < mid /\ x = G i))
       /\ NoDup (dir_names f)
       (* (a) the limits: at most n plain closed files, at most m archives; the next cleanup would see them like this:
              NEWEST KEY FIRST, the plain files, then the archives *)
       /\ L - mid <= n /\ mid - lo <= m
       /\ (forall off', list_log_gz off' (c_spec c) (fixed0 c) f (IFTs std_fmt)
                        = Some (rev (map K (seq mid (L - mid))) ++ rev (map G (seq lo (mid - lo)))))
       (* the newest n closed files are there as they were closed *)
       /\ (forall i, mid <= i < L -> lookup f (G i) = None /\
             exists fl, file_of f (K i) = Some fl /\ fdata fl = nth i closed [] /\ fgz fl = 0%N /\ fdir fl = false)
       (* (c) the next m are complete archives of what the file held when it was closed; the original is gone *)
       /\ (forall i, lo <= i < mid -> lookup f (K i) = None /\
             exists fl, file_of f (G i) = Some fl /\ fdata fl = nth i closed [] /\ fgz fl = 1%N /\ fdir fl = false)
       (* older files are gone *)
       /\ (forall i, i < lo -> lookup f (K i) = None /\ lookup f (G i) = None)
       (* (b) the survivors, read in key order, then rCURRENT: a suffix of what was written *)
       /\ written ops = concat (firstn lo closed) ++ concat (map (fun i => data_at f (if mid <=? i then K i else G i)) (seq lo (L - lo))) ++ cur
       (* (d) the current file is plain and holds what it would hold without cleanup *)
       /\ (exists fl, file_of f (cname c) = Some fl /\ fdata fl = cur /\ fgz fl = 0%N /\ fdir fl = false).
Proof.
  intros Hcfg Hk T Hsfx Hb Htk Hlo Hhi Hmax Ea f L lo mid.
  pose proof (timestamps_cleanup_stream c crit k t0 off ops Hcfg T Hsfx Hb Htk Hlo Hhi Hmax) as S. cbv zeta in S. rewrite Ea in S. fold f in S.
  destruct S as [Fl [[keys [V [Hko Hrg]]] _]]. cbn [flat] in Fl. split; [exact Fl|].
  unfold k_lo, k_mid in V. rewrite Hk in V. fold L lo mid in V.
  destruct V as (Hlen & KD & (jc & Lc & Pc & Cc)). fold L in Hlen.
  exists keys. cbv zeta. set (e := ts_e c off) in *.
  assert (Yk : forall key, In key keys -> in_years e (fst key)).
  { intros key Ik. apply (years_in e t0 (t0 + elapsed ops)); [split; assumption | exact (Hrg key Ik)]. }
  pose proof (gnames_ts c e keys Hsfx Hko Yk) as GN. rewrite Hlen in GN.
  destruct (gdir_properties _ _ _ _ _ _ GN KD) as (Pl & Ar & Old & Data). fold L in Pl, Data.
  split; [exact Hlen|]. split; [exact Hko|]. split; [exact Hrg|].
  split; [exact (gdir_names_cn _ _ _ _ _ _ jc KD Lc)|].
  split; [exact (gd_nodup _ _ _ _ _ _ KD)|].
  split; [unfold mid; lia|]. split; [unfold lo, mid; lia|].
  split. { intros off'. apply (list_log_gz_ts c e off' f keys closed lo mid Hsfx Hko Yk Hlen KD). }
  split; [exact Pl|]. split; [exact Ar|]. split; [exact Old|].
  split.
  { change (fun i => data_at f (if mid <=? i then kname c e (nth i keys kd) else gz_name (kname c e (nth i keys kd))))
      with (fun i => data_at f (gentry (tname c e keys) mid i)).
    rewrite Data, app_assoc, <- concat_app, firstn_skipn. symmetry. exact Fl. }
  destruct Pc as [Gc Dc]. exists (inode f jc). rewrite (file_of_lookup _ _ _ Lc). auto.
Qed.
Print Assumptions timestamps_cleanup.

(* ------------------------------------------------------------------ 2. NO OPERATION FAILS OR PANICS *)
Theorem timestamps_cleanup_no_panic c crit k t0 off ops :
  tskcfg c crit k -> tag_ok c -> sfx_ok (c_spec c) -> Forall basic_op ops -> Forall tick_ok ops ->
  (0 <= t0 + ts_e c off)%Z -> (t0 + elapsed ops + ts_e c off < sec_max)%Z -> (N.of_nat (length ops) <= usize_max)%N ->
  Forall obs_ok (snd (run (sys0 t0 off) (OStart c :: ops ++ [OStop]))).
Proof.
  intros Hcfg T Hsfx Hb Htk Hlo Hhi Hmax.
  pose proof (timestamps_cleanup_stream c crit k t0 off ops Hcfg T Hsfx Hb Htk Hlo Hhi Hmax) as S. cbv zeta in S.
  exact (proj1 (proj2 (proj2 S))).
Qed.
Print Assumptions timestamps_cleanup_no_panic.

(* ------------------------------------------------------------------ size criterion: the view is a function of the operations *)
Theorem timestamps_cleanup_partition c k m t0 off ops :
  tskcfg c (CSize m) k -> tag_ok c -> sfx_ok (c_spec c) -> Forall basic_op ops -> Forall tick_ok ops ->
  (0 <= t0 + ts_e c off)%Z -> (t0 + elapsed ops + ts_e c off < sec_max)%Z -> (N.of_nat (length ops) <= usize_max)%N ->
  let f := wfs (s_w (fst (run (sys0 t0 off) (OStart c :: ops ++ [OStop])))) in
  match s_run m None ops with
  | None => names f = []
  | Some (closed, cur) =>
    closed ++ [cur] = expected_files m None (items false ops)
    /\ exists keys, tsk_view c (ts_e c off) f keys closed cur (k_lo k (length closed)) (k_mid k (length closed)) /\ keys_ok keys
  end.
Proof.
  intros Hcfg T Hsfx Hb Htk Hlo Hhi Hmax f.
  pose proof (timestamps_cleanup_stream c (CSize m) k t0 off ops Hcfg T Hsfx Hb Htk Hlo Hhi Hmax) as S. cbv zeta in S.
  destruct S as (_ & V & _ & Z). rewrite (Z m eq_refl) in V. fold f in V.
  pose proof (s_run_none m ops Hb) as P.
  destruct (s_run m None ops) as [[closed cur]|]; [|exact V]. split; [exact P|].
  destruct V as [keys [V [K _]]]. exists keys. auto.
Qed.
Print Assumptions timestamps_cleanup_partition.

(* ------------------------------------------------------------------ examples *)
Import String.StringSyntax.
Open Scope string_scope.

Definition sk_cfg (k : cleanup) (sfx : String.string) : config :=
  {| c_spec := ex_sp sfx; c_append := false; c_cap := Some 3%nat; c_rot := Some (CSize 100, NTimestamps, k); c_utc := false;
     c_symlink := false; c_bg := false; c_async := false; c_start := None |}.
Definition sk_final (k : cleanup) (sfx : String.string) (ops : list op) : list (bytes * N * bytes) :=
  snap_of (fst (run (sys0 0 0) (OStart (sk_cfg k sfx) :: ops ++ [OStop]))).

(* ext_ops (TsTheorems.v): rCURRENT is closed four times in second 0 ("a", "b", "c", "d"), then the clock advances; "e" was
   started in second 1; "f" stays in rCURRENT *)
Example sk_never :
  sk_final KNever "log" ext_ops
  = [ (bs "app_r1970-01-01_00-00-00.log", 0%N, bs "a");
      (bs "app_r1970-01-01_00-00-00.restart-0000.log", 0%N, bs "b");
      (bs "app_r1970-01-01_00-00-00.restart-0001.log", 0%N, bs "c");
      (bs "app_r1970-01-01_00-00-00.restart-0002.log", 0%N, bs "d");
      (bs "app_r1970-01-01_00-00-01.log", 0%N, bs "e");
      (bs "app_rCURRENT.log", 0%N, bs "f") ].
Proof. vm_compute. reflexivity. Qed.

(* KLog 2: rCURRENT and TWO closed files (TimestampsDirect: the current file and one closed file, tk_log_2) *)
Example sk_log_2 :
  sk_final (KLog 2) "log" ext_ops
  = [ (bs "app_r1970-01-01_00-00-00.restart-0002.log", 0%N, bs "d"); (bs "app_r1970-01-01_00-00-01.log", 0%N, bs "e");
      (bs "app_rCURRENT.log", 0%N, bs "f") ].
Proof. vm_compute. reflexivity. Qed.

Example sk_gz_2 :
  sk_final (KGz 2) "log" ext_ops
  = [ (bs "app_r1970-01-01_00-00-00.restart-0002.log.gz", 1%N, bs "d"); (bs "app_r1970-01-01_00-00-01.log.gz", 1%N, bs "e");
      (bs "app_rCURRENT.log", 0%N, bs "f") ].
Proof. vm_compute. reflexivity. Qed.

Example sk_loggz_1_2 :
  sk_final (KLogGz 1 2) "log" ext_ops
  = [ (bs "app_r1970-01-01_00-00-00.restart-0001.log.gz", 1%N, bs "c");
      (bs "app_r1970-01-01_00-00-00.restart-0002.log.gz", 1%N, bs "d");
      (bs "app_r1970-01-01_00-00-01.log", 0%N, bs "e");
      (bs "app_rCURRENT.log", 0%N, bs "f") ].
Proof. vm_compute. reflexivity. Qed.

(* both limits 0: only rCURRENT is left *)
Example sk_none :
  sk_final (KLog 0) "log" ext_ops = [ (bs "app_rCURRENT.log", 0%N, bs "f") ]
  /\ sk_final (KGz 0) "log" ext_ops = [ (bs "app_rCURRENT.log", 0%N, bs "f") ]
  /\ sk_final (KLogGz 0 0) "log" ext_ops = [ (bs "app_rCURRENT.log", 0%N, bs "f") ].
Proof. repeat split; vm_compute; reflexivity. Qed.

(* the hypotheses of the theorems hold for this history (they are not vacuous), and the conclusion is what was computed *)
Lemma sk_cfg_ok k sfx : tskcfg (sk_cfg k sfx) (CSize 100) k.
Proof. repeat split. Qed.
Lemma sk_tag_ok k : tag_ok (sk_cfg k "log").
Proof. apply tag_free_ok. split; vm_compute; reflexivity. Qed.
Lemma sk_sfx_ok k : sfx_ok (c_spec (sk_cfg k "log")).
Proof. vm_compute. reflexivity. Qed.
Lemma sk_bounds k : (0 <= 0 + ts_e (sk_cfg k "log") 0)%Z /\ (0 + elapsed ext_ops + ts_e (sk_cfg k "log") 0 < sec_max)%Z
  /\ (N.of_nat (length ext_ops) <= usize_max)%N.
Proof. split; [vm_compute; discriminate|]. split; [vm_compute; reflexivity | vm_compute; discriminate]. Qed.

Example sk_view :
  a_run None ext_ops (snd (run (fst (step (sys0 0 0) (OStart (sk_cfg (KLogGz 1 2) "log")))) ext_ops))
  = Some ([bs "a"; bs "b"; bs "c"; bs "d"; bs "e"], bs "f").
Proof. vm_compute. reflexivity. Qed.

(* timestamps_cleanup for KLogGz 1 2 and five rotations: L = 5, n = 1, m = 2, lo = 2, mid = 4 *)
Example sk_instance :
  let c := sk_cfg (KLogGz 1 2) "log" in
  let f := wfs (s_w (fst (run (sys0 0 0) (OStart c :: ext_ops ++ [OStop])))) in
  exists keys : list key,
    let K i := kname c 0 (nth i keys kd) in
    let G i := gz_name (K i) in
    length keys = 5 /\ keys_ok keys
    /\ (forall x, (exists j, lookup f x = Some j) <-> x = cname c \/ (exists i, 4 <= i < 5 /\ x = K i) \/ (exists i, 2 <= i < 4 /\ x = G i))
    /\ list_log_gz 0 (c_spec c) (fixed0 c) f (IFTs std_fmt) = Some [K 4; G 3; G 2]
    /\ (exists fl, file_of f (K 4) = Some fl /\ fdata fl = bs "e" /\ fgz fl = 0%N /\ fdir fl = false)
    /\ (exists fl, file_of f (G 3) = Some fl /\ fdata fl = bs "d" /\ fgz fl = 1%N /\ fdir fl = false)
    /\ lookup f (K 3) = None /\ lookup f (K 1) = None /\ lookup f (G 1) = None
    /\ (exists fl, file_of f (cname c) = Some fl /\ fdata fl = bs "f" /\ fgz fl = 0%N /\ fdir fl = false).
Proof.
  intros c f. destruct (sk_bounds (KLogGz 1 2)) as (B1 & B2 & B3).
  pose proof (timestamps_cleanup c (CSize 100) (KLogGz 1 2) 1 2 0 0 ext_ops _ _
                (sk_cfg_ok _ _) eq_refl (sk_tag_ok _) (sk_sfx_ok _) ext_ops_basic ext_ops_ticks B1 B2 B3 sk_view) as T.
  cbv zeta in T. fold f in T. destruct T as (_ & keys & T). exists keys. cbv zeta.
  change (length [bs "a"; bs "b"; bs "c"; bs "d"; bs "e"]) with 5 in T. cbn [Nat.sub Nat.add] in T.
  change (ts_e c 0) with 0%Z in T.
  destruct T as (Hl & Hko & _ & Names & _ & _ & _ & LG & Pl & Ar & Old & _ & Cur).
  split; [exact Hl|]. split; [exact Hko|]. split; [exact Names|].
  split; [exact (LG 0%Z)|].
  split; [exact (proj2 (Pl 4 ltac:(lia)))|].
  split; [exact (proj2 (Ar 3 ltac:(lia)))|].
  split; [exact (proj1 (Ar 3 ltac:(lia)))|].
  split; [exact (proj1 (Old 1 ltac:(lia)))|].
  split; [exact (proj2 (Old 1 ltac:(lia))) | exact Cur].
Qed.

Example sk_no_panic_instance :
  Forall obs_ok (snd (run (sys0 0 0) (OStart (sk_cfg (KLog 0) "log") :: ext_ops ++ [OStop]))).
Proof.
  destruct (sk_bounds (KLog 0)) as (B1 & B2 & B3).
  exact (timestamps_cleanup_no_panic _ (CSize 100) (KLog 0) 0 0 ext_ops (sk_cfg_ok _ _) (sk_tag_ok _) (sk_sfx_ok _)
           ext_ops_basic ext_ops_ticks B1 B2 B3).
Qed.

(* ------------------------------------------------------------------ findings *)
(* 1. NAMES ARE USED AGAIN when nothing is kept (n + m = 0).  An unbuffered writer with KLog 0: "a" is closed in second 0 as
      <ts> and removed at once; then "b" is closed in the same second.  The process is killed after the rename and the
      creation of the new rCURRENT, just before the removal: the file of "b" is there under the SAME name <ts> that the file
      of "a" had - no restart counter.  With KLog 1 (the file of "a" is still there) it is <ts>.restart-0000. *)
Definition ru_cfg (k : cleanup) : config :=
  {| c_spec := ex_sp "log"; c_append := false; c_cap := None; c_rot := Some (CSize 100, NTimestamps, k); c_utc := false;
     c_symlink := false; c_bg := false; c_async := false; c_start := None |}.
Definition ru_ops : list op := [OWrite (bs "a"); OTrigger; OWrite (bs "b"); OSetKill 2; OTrigger].
Example names_reused :
  snap_of (fst (run (sys0 0 0) (OStart (ru_cfg (KLog 0)) :: [OWrite (bs "a"); OTrigger; OWrite (bs "b")])))
  = [ (bs "app_rCURRENT.log", 0%N, bs "b") ]
  /\ snap_of (fst (run (sys0 0 0) (OStart (ru_cfg (KLog 0)) :: ru_ops)))
     = [ (bs "app_r1970-01-01_00-00-00.log", 0%N, bs "b"); (bs "app_rCURRENT.log", 0%N, bs "") ]
  /\ snap_of (fst (run (sys0 0 0) (OStart (ru_cfg (KLog 1)) :: ru_ops)))
     = [ (bs "app_r1970-01-01_00-00-00.log", 0%N, bs "a"); (bs "app_r1970-01-01_00-00-00.restart-0000.log", 0%N, bs "b");
         (bs "app_rCURRENT.log", 0%N, bs "") ].
Proof. repeat split; vm_compute; reflexivity. Qed.

(* 2. A CLOCK THAT GOES BACKWARDS (tick_ok violated, back_ops of TsTheorems.v: "a" started in second 0, "b" in second 5, "c" in
      second 0 again): the file of "c" is listed behind the file of "b"; KLog 1 removes "c" although the older "b" survives.
      rCURRENT is not affected: in contrast to TimestampsDirect naming (where the cleanup has to be told which of the
      listed files is being written, TsdCleanup.clock_backwards_current_spared) the file that is being written is never listed. *)
Example clock_backwards_newer_removed :
  sk_final KNever "log" back_ops
  = [ (bs "app_r1970-01-01_00-00-00.log", 0%N, bs "a"); (bs "app_r1970-01-01_00-00-00.restart-0000.log", 0%N, bs "c");
      (bs "app_r1970-01-01_00-00-05.log", 0%N, bs "b"); (bs "app_rCURRENT.log", 0%N, bs "d") ]
  /\ sk_final (KLog 1) "log" back_ops
     = [ (bs "app_r1970-01-01_00-00-05.log", 0%N, bs "b"); (bs "app_rCURRENT.log", 0%N, bs "d") ].
Proof. split; vm_compute; reflexivity. Qed.

(* 3. The suffix "gz" / a suffix that ends with ".gz" (sfx_ok violated), as for the other namings: with "gz" every closed file
      is listed twice - KLogGz 2 1 keeps one closed file instead of three -; with "log.gz" the closed files are taken for
      archives and are never compressed. *)
Example sk_sfx_gz_counterexamples :
  ~ sfx_ok (c_spec (sk_cfg (KLogGz 2 1) "gz"))
  /\ sk_final (KLogGz 2 1) "gz" ext_ops = [ (bs "app_r1970-01-01_00-00-01.gz", 0%N, bs "e"); (bs "app_rCURRENT.gz", 0%N, bs "f") ]
  /\ ~ sfx_ok (c_spec (sk_cfg (KGz 2) "log.gz"))
  /\ sk_final (KGz 2) "log.gz" ext_ops
     = [ (bs "app_r1970-01-01_00-00-00.restart-0002.log.gz", 0%N, bs "d"); (bs "app_r1970-01-01_00-00-01.log.gz", 0%N, bs "e");
         (bs "app_rCURRENT.log.gz", 0%N, bs "f") ].
Proof.
  split; [vm_compute; discriminate|]. split; [vm_compute; reflexivity|]. split; [vm_compute; discriminate | vm_compute; reflexivity].
Qed.

(* ------------------------------------------------------------------ THE SAME HISTORY WITHOUT CLEANUP *)
(* The rotation flags - and with them the view (closed, cur) - do not depend on the cleanup strategy (trace_ok).  So the view of
   the run with cleanup IS what the same history leaves in the directory when the strategy is KNever: all closed files, plain,
   named by keys, and rCURRENT (ts_view of TsRun.v). *)
Close Scope string_scope.
Definition never_cfg_s (c : config) (crit : criterion) : config :=
  {| c_spec := c_spec c; c_append := c_append c; c_cap := c_cap c; c_rot := Some (crit, NTimestamps, KNever); c_utc := c_utc c;
     c_symlink := c_symlink c; c_bg := c_bg c; c_async := c_async c; c_start := c_start c |}.

Lemma tsk_view_never c e f keys closed cur : tsk_view c e f keys closed cur 0 0 -> ts_view c e f keys closed cur.
Proof.
  intros (Hlen & [Hle Hnd Hp Ha Hon] & HC). split; [exact Hlen|]. split; [|split; [exact HC|split; [|exact Hnd]]].
  - intros i Hi. apply Hp. lia.
  - intros n j Lj. destruct (Hon n j Lj) as [->|[(i & Hi & ->)|(i & Hi & _)]]; [left; reflexivity | right; exists i; split; [lia | reflexivity] | lia].
Qed.

Theorem timestamps_cleanup_vs_never c crit k t0 off ops :
  tskcfg c crit k -> tag_ok c -> sfx_ok (c_spec c) -> Forall basic_op ops -> Forall tick_ok ops ->
  (0 <= t0 + ts_e c off)%Z -> (t0 + elapsed ops + ts_e c off < sec_max)%Z -> (N.of_nat (length ops) <= usize_max)%N ->
  let a := a_run None ops (snd (run (fst (step (sys0 t0 off) (OStart c))) ops)) in
  let f0 := wfs (s_w (fst (run (sys0 t0 off) (OStart (never_cfg_s c crit) :: ops ++ [OStop])))) in
  tscfg (never_cfg_s c crit) crit
  /\ match a with
     | None => names f0 = []
     | Some (closed, cur) => exists keys, ts_view (never_cfg_s c crit) (ts_e c off) f0 keys closed cur /\ keys_ok keys
                                          /\ (forall key, In key keys -> (t0 <= fst key <= t0 + elapsed ops)%Z)
     end.
Proof.
  intros Hcfg T Hsfx Hb Htk Hlo Hhi Hmax a f0.
  assert (Hc0 : tscfg (never_cfg_s c crit) crit) by (destruct Hcfg as (_ & ? & ? & ? & _); repeat split; assumption).
  assert (Hk0 : tskcfg (never_cfg_s c crit) crit KNever) by (destruct Hcfg as (_ & ? & ? & ? & ?); repeat split; assumption).
  split; [exact Hc0|].
  assert (T0 : tag_ok (never_cfg_s c crit)) by exact T.
  assert (S0 : sfx_ok (c_spec (never_cfg_s c crit))) by exact Hsfx.
  pose proof (timestamps_cleanup_stream (never_cfg_s c crit) crit KNever t0 off ops Hk0 T0 S0 Hb Htk Hlo Hhi Hmax) as S. cbv zeta in S.
  fold f0 in S. destruct S as (_ & V & _).
  assert (Ea : a_run None ops (snd (run (fst (step (sys0 t0 off) (OStart (never_cfg_s c crit)))) ops)) = a).
  { assert (Y : years_ok (ts_e c off) t0 (t0 + elapsed ops)) by (split; assumption).
    apply (runs_agree_ix crit (ts_e c off) t0 (t0 + elapsed ops) _ _ _ _ _ _ _ _ _ _ _ _ _ _ _ _
             (sk_run_facts _ _ _ _ _ _ Hcfg Hsfx T Y) (sk_run_facts _ _ _ _ _ _ Hk0 S0 T0 Y) ops _ _ None 0); auto.
    - apply relsk_ix, start_rel_sk.
    - apply relsk_ix. exact (start_rel_sk (never_cfg_s c crit) crit KNever t0 off).
    - cbn. lia. }
  rewrite Ea in V. destruct a as [[closed cur]|]; [|exact V].
  destruct V as (keys & V & K & Rg). exists keys. split; [|split; [exact K | exact Rg]].
  apply tsk_view_never. exact V.
Qed.
Print Assumptions timestamps_cleanup_vs_never.
