(* Cleanup in a background thread (FileLogWriterBuilder::cleanup_in_background_thread, c_bg c = true).

   SCHEDULING ASSUMPTION of the model and of the harness (Model.cleanup_or_queue): the cleanup thread finishes each
   request before the logging thread starts its next operation, so the model works a request off at once; the caller
   ignores the result of the request; a panic would end the thread for good (wacts = 1).  Everything below is under this
   assumption: nothing is said about a cleanup that runs WHILE the logging thread goes on.

   nobg c = c with c_bg := false (cleanup in the logging thread).  For synchronous configurations without symlink:
   as long as the run under nobg c returns normal results and reports nothing on the error channel (clean_run: in
   particular no cleanup fails, so that ignoring its result changes nothing), the run under c goes through THE SAME
   WORLDS with the same observations; the writer states differ in the flag rs_bg only (run_bsim, bg_sim_whole).
   For Numbers naming with a cleanup strategy the hypothesis is a theorem (numk_run_clean, in the worlds of
   numbers_cleanup_stream), hence numbers_cleanup_stream / numbers_cleanup_properties / the no-panic theorem hold for
   cleanup in the background thread: numbers_cleanup_stream_bg, numbers_cleanup_bg, numbers_cleanup_no_panic_bg. *)
Require Import FL.Base.Bytes FL.Base.BytesFacts FL.Base.PathName FL.Fs.Fs FL.Fs.FsFacts FL.Time.Civil FL.Time.TsFormat
  FL.Names.FileSpec FL.Names.NamesFacts FL.Flw.Model FL.Flw.ModelFacts FL.Flw.NumFs FL.Flw.NumInv FL.Flw.Run FL.Flw.RunFacts
  FL.Flw.NumRun FL.Oracles.O_Flw FL.Flw.NumTheorems FL.Flw.NumListing FL.Flw.NumRestart FL.Flw.NumKillRestart
  FL.Flw.CleanupFacts FL.Flw.NumCleanupNames FL.Flw.NumCleanupStep FL.Flw.NumCleanupRun FL.Flw.NumCleanup
  FL.Flw.NoPanic FL.Flw.AsyncSim FL.Flw.WorldPar FL.Flw.LinkSim.
From Coq Require Import ZifyN ZifyNat ZifyBool.
Open Scope nat_scope.

(* ------------------------------------------------------------------ the state machine under c and under nobg c *)
Definition nobg (c : config) : config :=
  {| c_spec := c_spec c; c_append := c_append c; c_cap := c_cap c; c_rot := c_rot c; c_utc := c_utc c;
     c_symlink := c_symlink c; c_bg := false; c_async := c_async c; c_start := c_start c |}.
Definition clear_rs (rs : rot_state) : rot_state :=
  {| rs_naming := rs_naming rs; rs_roll := rs_roll rs; rs_cleanup := rs_cleanup rs; rs_bg := false |}.
Definition clear_bg (st : inner) : inner :=
  match st with Active (Some rs) wr p => Active (Some (clear_rs rs)) wr p | _ => st end.
Definition unb (s : flw) : flw :=
  {| f_cfg := nobg (f_cfg s); f_inner := clear_bg (f_inner s); f_poisoned := f_poisoned s |}.

Ltac bg_norm :=
  unfold mount_next, init_naming, latest_timestamp_file, creation_ts_of_current, collision_free, index_for_rcurrent,
    cleanup_or_queue, cleanup_impl, open_log_file, do_symlink, infix_from_ts, name_of, fixed_of, starttxt;
  cbn [nobg c_spec c_append c_cap c_rot c_utc c_symlink c_async c_start].

Lemma mount_next_nobg c w st f : mount_next (nobg c) w st f = mount_next c w st f.
Proof. bg_norm. reflexivity. Qed.
Lemma init_naming_nobg c w nam : init_naming (nobg c) w nam = init_naming c w nam.
Proof. bg_norm. reflexivity. Qed.
Lemma open_log_file_nobg c w i : open_log_file (nobg c) w i = open_log_file c w i.
Proof. bg_norm. reflexivity. Qed.
Lemma cleanup_impl_nobg c w k flt d : cleanup_impl (nobg c) w k flt d = cleanup_impl c w k flt d.
Proof. bg_norm. reflexivity. Qed.

Lemma set_acts_0 w : wacts w = 0 -> set_acts w 0 = w.
Proof. destruct w; cbn. intros ->. reflexivity. Qed.

(* the end of a rotation: the cleanup request.  In the logging thread its result is the result of the rotation; if that
   is Ok, the background variant does the same to the world *)
Lemma finish_rotation_bg c w2 rs ns1 wr wr' p' w' st' :
  wkill w2 = None -> wacts w2 = 0 ->
  finish_rotation c w2 (clear_rs rs) ns1 wr wr' p' = (Ok tt, w', st') ->
  exists st, finish_rotation c w2 rs ns1 wr wr' p' = (Ok tt, w', st) /\ clear_bg st = st'
    /\ wkill w' = None /\ wacts w' = 0.
Proof.
  intros K A. unfold finish_rotation. cbn [clear_rs rs_roll rs_bg rs_cleanup].
  destruct (w_flush w2 wr) as [[okf w2a] wra] eqn:EF. destruct (U3_env _ _ _ _ _ (w_flush_U wr w2) K EF) as [K1 [A1 _]].
  set (w2b := if okf then w2a else report EFlush w2a).
  assert (K2 : wkill w2b = None /\ wacts w2b = 0).
  { unfold w2b. destruct okf; [split; congruence|]. destruct (report_env EFlush w2a K1) as [Kr [Ar _]]. split; congruence. }
  destruct K2 as [K2 A2]. destruct (U1_env _ _ (w_drop_U wra w2b) K2) as [K3 [A3 _]]. cbv beta in K3, A3.
  set (w3 := w_drop w2b wra) in *. unfold cleanup_or_queue at 1.
  destruct (cleanup_impl c w3 (rs_cleanup rs) (ns_filter ns1) (if ns_writes_direct ns1 then Some p' else None)) as [rc w4] eqn:EC.
  destruct (U2_env _ _ _ _ (cleanup_impl_U c (rs_cleanup rs) (ns_filter ns1) (if ns_writes_direct ns1 then Some p' else None) w3) K3 EC) as [K4 [A4 _]].
  destruct rc as [[]| |]; intros E; try discriminate E. injection E as <- <-.
  unfold cleanup_or_queue. destruct (rs_bg rs) eqn:Eb.
  - assert (EQ : match rs_cleanup rs with
                 | KNever => (Ok tt, w3)
                 | _ => if Nat.eqb (wacts w3) 1 then (Ok tt, w3) else
                        match cleanup_impl c w3 (rs_cleanup rs) (ns_filter ns1) (if ns_writes_direct ns1 then Some p' else None) with
                        | (Panic, w1) => (Ok tt, set_acts w1 1)
                        | (_, w1) => (Ok tt, w1)
                        end
                 end = (Ok tt, w4)).
    { destruct (rs_cleanup rs); [cbn in EC; exact EC | | |]; rewrite A3, A2; cbn [Nat.eqb]; rewrite EC; reflexivity. }
    rewrite EQ. eexists. split; [reflexivity|]. cbn [clear_bg clear_rs rs_naming rs_roll rs_cleanup rs_bg].
    split; [reflexivity|]. split; [exact K4 | congruence].
  - rewrite EC. eexists. split; [reflexivity|]. cbn [clear_bg clear_rs rs_naming rs_roll rs_cleanup rs_bg].
    split; [reflexivity|]. split; [exact K4 | congruence].
Qed.

Lemma mount_next_bg c w st f w' stn' :
  wkill w = None -> wacts w = 0 -> mount_next c w (clear_bg st) f = (Ok tt, w', stn') ->
  exists st', mount_next c w st f = (Ok tt, w', st') /\ clear_bg st' = stn' /\ wkill w' = None /\ wacts w' = 0.
Proof.
  intros K A. rewrite !mount_next_g_eq. unfold mount_next_g.
  destruct st as [|[rs|] wr p]; cbn [clear_bg];
    try (intros E; injection E as <- <-; eexists; split; [reflexivity|]; split; [reflexivity|]; split; assumption).
  cbn [clear_rs rs_roll rs_naming rs_cleanup rs_bg].
  destruct (f || rotation_necessary w (rs_roll rs))%bool;
    [|intros E; injection E as <- <-; eexists; split; [reflexivity|]; split; [reflexivity|]; split; assumption].
  destruct (next_naming c w (rs_naming rs)) as [[r0 w1] ns1] eqn:EN.
  destruct (U3_env _ _ _ _ _ (next_naming_U c (rs_naming rs) w) K EN) as [K1 [A1 _]].
  destruct r0 as [infix| |]; try (intros E; discriminate E).
  destruct (open_log_file c w1 (Some infix)) as [[[wr' p']| |] w2] eqn:EO; try (intros E; discriminate E).
  destruct (open_log_file_env c w1 (Some infix) _ w2 K1 EO) as [K2 A2].
  apply finish_rotation_bg; [exact K2 | congruence].
Qed.

(* initialize: the flag, and the reset of the request counter (which is 0 anyway) *)
Lemma initialize_bg c w r w' : wkill w = None -> wacts w = 0 -> initialize (nobg c) w = (r, w') ->
  exists r2, initialize c w = (r2, w')
    /\ match r with
       | Ok stn => exists st, r2 = Ok st /\ clear_bg st = stn
       | Err => r2 = Err
       | Panic => r2 = Panic
       end
    /\ wkill w' = None /\ wacts w' = 0.
Proof.
  intros K A. unfold initialize. cbn [nobg c_rot c_append c_bg]. destruct (c_rot c) as [[[crit nam] k]|].
  - rewrite init_naming_nobg. destruct (init_naming c w nam) as [r0 w1] eqn:E0.
    destruct (U2_env _ _ _ _ (init_naming_U c nam w) K E0) as [K1 [A1 _]].
    destruct r0 as [[ns infix]| |]; cbn [bind];
      [| intros E; injection E as <- <-; eexists; split; [reflexivity|]; split; [reflexivity|]; split; congruence
       | intros E; injection E as <- <-; eexists; split; [reflexivity|]; split; [reflexivity|]; split; congruence].
    rewrite open_log_file_nobg. destruct (open_log_file c w1 (Some infix)) as [r1 w2] eqn:E1.
    destruct (open_log_file_env c w1 _ _ _ K1 E1) as [K2 A2].
    destruct r1 as [[wr path]| |]; cbn [bind];
      [| intros E; injection E as <- <-; eexists; split; [reflexivity|]; split; [reflexivity|]; split; congruence
       | intros E; injection E as <- <-; eexists; split; [reflexivity|]; split; [reflexivity|]; split; congruence].
    destruct (roll_new w2 crit (c_append c) path) as [r2 w3] eqn:E2.
    destruct (U2_env _ _ _ _ (roll_new_U crit (c_append c) path w2) K2 E2) as [K3 [A3 _]].
    destruct r2 as [roll| |]; cbn [bind];
      [| intros E; injection E as <- <-; eexists; split; [reflexivity|]; split; [reflexivity|]; split; congruence
       | intros E; injection E as <- <-; eexists; split; [reflexivity|]; split; [reflexivity|]; split; congruence].
    assert (EC : exists r3 w4,
               match k with KNever => (Ok tt, w3) | _ => cleanup_impl (nobg c) w3 k (ns_filter ns) (if naming_writes_direct nam then Some path else None) end = (r3, w4)
               /\ match k with KNever => (Ok tt, w3) | _ => cleanup_impl c w3 k (ns_filter ns) (if naming_writes_direct nam then Some path else None) end = (r3, w4)
               /\ wkill w4 = None /\ wacts w4 = 0).
    { destruct k; [exists (Ok tt), w3; repeat split; congruence | | |]; rewrite cleanup_impl_nobg;
        (destruct (cleanup_impl c w3 _ (ns_filter ns) (if naming_writes_direct nam then Some path else None)) as [r3 w4] eqn:E3; exists r3, w4;
         split; [reflexivity|]; split; [reflexivity|];
         destruct (U2_env _ _ _ _ (cleanup_impl_U c _ (ns_filter ns) (if naming_writes_direct nam then Some path else None) w3) K3 E3) as [K4 [A4 _]]; split; congruence). }
    destruct EC as [r3 [w4 [E3n [E3 [K4 A4]]]]]. rewrite E3n, E3.
    destruct r3 as [[]| |]; cbn [bind];
      [| intros E; injection E as <- <-; eexists; split; [reflexivity|]; split; [reflexivity|]; split; congruence
       | intros E; injection E as <- <-; eexists; split; [reflexivity|]; split; [reflexivity|]; split; congruence].
    assert (Eb : match k with KNever => false | _ => false end = false) by (destruct k; reflexivity). rewrite Eb.
    intros E; injection E as <- <-.
    destruct (match k with KNever => false | _ => c_bg c end); rewrite ?(set_acts_0 w4 A4);
      (eexists; split; [reflexivity|]; split; [eexists; split; [reflexivity|]; reflexivity|]; split; assumption).
  - rewrite open_log_file_nobg. destruct (open_log_file c w None) as [r1 w2] eqn:E1.
    destruct (open_log_file_env c w _ _ _ K E1) as [K2 A2].
    destruct r1 as [[wr path]| |]; cbn [bind]; intros E; injection E as <- <-; eexists; (split; [reflexivity|]);
      (split; [first [reflexivity | eexists; split; reflexivity]|]); split; congruence.
Qed.

(* write_buffer: if the variant with cleanup in the logging thread returns Ok and reports nothing (in particular: the
   rotation, cleanup included, did not fail), the background variant does the same *)
Lemma write_rest_bg s w0 st0 b w' sn' rot :
  c_symlink (f_cfg s) = false -> wkill w0 = None -> wacts w0 = 0 ->
  write_rest (open_log_file (nobg (f_cfg s))) (unb s) w0 (clear_bg st0) b = (Ok tt, w', sn', rot) ->
  werrs w' = werrs w0 ->
  exists s', write_rest (open_log_file (f_cfg s)) s w0 st0 b = (Ok tt, w', s', rot) /\ unb s' = sn'
    /\ wkill w' = None /\ wacts w' = 0.
Proof.
  intros Hs K A. unfold write_rest. cbn [unb f_cfg].
  rewrite <- !mount_next_g_eq, mount_next_nobg.
  assert (Erot : match clear_bg st0 with Active (Some rs) _ _ => rotation_necessary w0 (rs_roll rs) | _ => false end
                 = match st0 with Active (Some rs) _ _ => rotation_necessary w0 (rs_roll rs) | _ => false end).
  { destruct st0 as [|[rs|] wr p]; reflexivity. }
  rewrite Erot. clear Erot.
  destruct (mount_next (f_cfg s) w0 (clear_bg st0) false) as [[r1 w1] stn1] eqn:EM.
  destruct (mount_next_grow _ _ _ _ _ _ _ Hs K EM) as [K1 [e1 Gr1]].
  destruct r1 as [[]| |].
  - destruct (mount_next_bg _ _ _ _ _ _ K A EM) as [st1 [EM' [Ec [_ A1]]]]. rewrite EM'. subst stn1.
    destruct st1 as [|o_rot wr path]; cbn [clear_bg].
    + intros E _. injection E as <- <- <-. eexists. split; [reflexivity|]. split; [reflexivity|]. split; assumption.
    + assert (Ei : clear_bg (Active o_rot wr path) = Active (match o_rot with Some rs => Some (clear_rs rs) | None => None end) wr path)
        by (destruct o_rot; reflexivity).
      cbn [clear_bg] in Ei. rewrite Ei. clear Ei.
      destruct (w_write w1 wr b) as [[ok w3] wr3] eqn:EW. destruct (U3_env _ _ _ _ _ (w_write_U wr b w1) K1 EW) as [K3 [A3 _]].
      destruct ok; intros E _; [|discriminate E]. injection E as <- <- <-. eexists. split; [reflexivity|].
      split; [|split; congruence]. unfold unb, with_inner. cbn [f_cfg f_inner f_poisoned clear_bg]. destruct o_rot; reflexivity.
  - (* the rotation failed: ELogFile is reported *)
    intros E He. exfalso.
    destruct (report_env ELogFile w1 K1) as [Kr [_ Er]].
    destruct stn1 as [|o_rot wr path].
    + injection E as <- _ _. rewrite Er, Gr1, <- app_assoc in He. apply app_self_nil in He. destruct e1; discriminate He.
    + destruct (w_write (report ELogFile w1) wr b) as [[ok w3] wr3] eqn:EW.
      destruct (w_write_grow_c _ _ _ _ _ _ Kr EW) as [e3 Gr3].
      assert (He' : werrs w3 = werrs w0) by (destruct ok; [injection E as <- _; exact He | discriminate E]).
      rewrite Gr3, Er, Gr1, <- !app_assoc in He'. apply app_self_nil in He'. destruct e1; discriminate He'.
  - intros E. discriminate E.
Qed.

Lemma write_buffer_bg s w b w' sn' rot :
  c_symlink (f_cfg s) = false -> wkill w = None -> wacts w = 0 ->
  write_buffer (unb s) w b = (Ok tt, w', sn', rot) -> werrs w' = werrs w ->
  exists s', write_buffer s w b = (Ok tt, w', s', rot) /\ unb s' = sn' /\ wkill w' = None /\ wacts w' = 0.
Proof.
  intros Hs K A. rewrite !write_buffer_g_eq. unfold write_buffer_g, init_part. cbn [unb f_cfg f_inner].
  rewrite <- !initialize_g_eq. destruct (f_inner s) as [|o wr p] eqn:Ei; cbn [clear_bg].
  - destruct (initialize (nobg (f_cfg s)) w) as [r0 w0] eqn:EI.
    destruct (initialize_bg _ _ _ _ K A EI) as [r2 [EI' [Hr [K0 A0]]]]. rewrite EI'.
    destruct r0 as [stn| |]; [|intros E; discriminate E | intros E; discriminate E].
    destruct Hr as [st [-> <-]]. intros E He.
    assert (Gr0 : exists e, werrs w0 = werrs w ++ e).
    { rewrite initialize_g_eq in EI'. pose proof (OPs_same (f_cfg s) Hs) as OP.
      destruct (initialize_g_pair False _ _ OP (f_cfg s) (wacts w) w) as [r3 [w3 [n3 [ol [AA _]]]]].
      destruct (initialize_g_grow _ _ _ _ _ _ _ OP AA) as [e Gr]. specialize (AA (wlink w) []).
      rewrite <- (alive_X w K), EI' in AA. injection AA as _ ->. exists e. exact Gr. }
    destruct Gr0 as [e0 Gr0].
    assert (Gr : exists e, werrs w' = werrs w0 ++ e).
    { fold (unb s) in E. change (write_rest (open_log_file (nobg (f_cfg s))) (unb s) w0 (clear_bg st) b)
        with (write_rest (open_log_file (f_cfg (unb s))) (unb s) w0 (clear_bg st) b) in E.
      pose proof (OPs_same (f_cfg (unb s)) Hs) as OP.
      destruct (write_rest_pair False _ _ OP (unb s) (wacts w0) w0 (clear_bg st) b) as [r3 [w3 [s3 [rot3 [n3 [ol [AA [_ [Gr _]]]]]]]]].
      specialize (AA (wlink w0) []). rewrite <- (alive_X w0 K0), E in AA. injection AA as _ -> _ _. exact Gr. }
    destruct Gr as [e Gr].
    assert (E0 : e0 = []).
    { rewrite Gr, Gr0, <- app_assoc in He. apply app_self_nil in He. destruct e0; [reflexivity | discriminate He]. }
    subst e0. rewrite app_nil_r in Gr0.
    destruct (write_rest_bg s w0 st b w' sn' rot Hs K0 A0 E ltac:(congruence)) as [s' [E' R]]. exists s'. split; [exact E' | exact R].
  - destruct o as [rs|]; intros E He.
    + exact (write_rest_bg s w (Active (Some rs) wr p) b w' sn' rot Hs K A E He).
    + exact (write_rest_bg s w (Active None wr p) b w' sn' rot Hs K A E He).
Qed.

Lemma flush_state_unb s w : flush_state (unb s) w = let '(ok, w', s') := flush_state s w in (ok, w', unb s').
Proof.
  unfold flush_state. cbn [unb f_inner]. destruct (f_inner s) as [|[rs|] wr p]; cbn [clear_bg]; [reflexivity | |];
    destruct (w_flush w wr) as [[ok w1] wr']; reflexivity.
Qed.
Lemma shutdown_state_unb s w : shutdown_state (unb s) w = let '(w', s') := shutdown_state s w in (w', unb s').
Proof.
  unfold shutdown_state, drain_acts. cbn [unb f_inner]. destruct (f_inner s) as [|[rs|] wr p]; cbn [clear_bg]; [reflexivity | |];
    destruct (w_flush w wr) as [[ok w1] wr']; reflexivity.
Qed.
Lemma drop_state_unb s w : drop_state (unb s) w = drop_state s w.
Proof.
  unfold drop_state. rewrite shutdown_state_unb. destruct (shutdown_state s w) as [w1 s1].
  rewrite shutdown_state_unb. destruct (shutdown_state s1 w1) as [w2 s2]. cbn [unb f_inner].
  destruct (f_inner s2) as [|[rs|] wr p]; reflexivity.
Qed.
Lemma ensure_start_unb s w : ensure_start (unb s) w = unb (ensure_start s w).
Proof.
  unfold ensure_start. cbn [unb f_cfg nobg c_spec c_start]. destruct (fts (c_spec (f_cfg s))); [|reflexivity].
  destruct (c_start (f_cfg s)); reflexivity.
Qed.

(* ------------------------------------------------------------------ the simulation *)
(* xb: cleanup in the background thread, xn: in the logging thread.  Same world (no kill pending, no request left over),
   the writer states differ in the flag only; synchronous handle, no symlink *)
Definition BSim (xb xn : sys) : Prop :=
  s_w xb = s_w xn /\ wkill (s_w xn) = None /\ wacts (s_w xn) = 0 /\ s_tl xb = s_tl xn /\ s_dead xb = s_dead xn
  /\ exists s, s_flw xb = Some s /\ s_flw xn = Some (unb s) /\ c_async (f_cfg s) = false /\ c_symlink (f_cfg s) = false.

Lemma apply_start_bsim xb xn o : BSim xb xn -> BSim (apply_start xb o) (apply_start xn o).
Proof.
  intros [Ew [K [A [Et [Hd [s [Eb [En [Ha Hs]]]]]]]]]. unfold apply_start. rewrite Eb, En. cbn [unb f_poisoned].
  destruct (names_computed o && negb (f_poisoned s)); [|repeat split; try assumption; exists s; repeat split; assumption].
  cbn [s_w s_flw s_tl s_dead]. repeat split; try assumption. exists (ensure_start s (s_w xb)).
  split; [reflexivity|]. split; [fold (unb s); rewrite ensure_start_unb, Ew; reflexivity|].
  unfold ensure_start. destruct (fts (c_spec (f_cfg s))); [|split; assumption]. destruct (c_start (f_cfg s)); split; assumption.
Qed.

Lemma BSim_intro xb xn s : s_w xb = s_w xn -> wkill (s_w xn) = None -> wacts (s_w xn) = 0 -> s_tl xb = s_tl xn ->
  s_dead xb = s_dead xn -> s_flw xb = Some s -> s_flw xn = Some (unb s) -> c_async (f_cfg s) = false ->
  c_symlink (f_cfg s) = false -> BSim xb xn.
Proof. intros. repeat split; try assumption. exists s. repeat split; assumption. Qed.

Ltac bsim s' := apply (BSim_intro _ _ s'); cbn [s_w s_flw s_tl s_dead]; try assumption; try reflexivity; try congruence.

Lemma sync_step_bsim xb xn o : BSim xb xn -> basic_op o ->
  obs_ok (snd (sync_step xn o)) -> werrs (s_w (fst (sync_step xn o))) = werrs (s_w xn) ->
  BSim (fst (sync_step xb o)) (fst (sync_step xn o)) /\ snd (sync_step xb o) = snd (sync_step xn o).
Proof.
  intros [Ew [K [A [Et [Hd [s [Eb [En [Ha Hs]]]]]]]]] Hb.
  destruct o; try contradiction; cbn [sync_step]; rewrite ?Eb, ?En; cbn [unb f_poisoned]; fold (unb s); rewrite ?Ew, ?Et, ?Hd.
  - (* OWrite *)
    destruct (f_poisoned s) eqn:Hp.
    + cbn [fst snd s_w]. intros _ _. split; [|reflexivity]. bsim s.
    + destruct (write_buffer (unb s) (s_w xn) (s_tl xn ++ b)) as [[[r w'] sn'] rot] eqn:EW. cbn [fst snd s_w obs_ok].
      destruct (write_buffer_grow (unb s) _ _ _ _ _ _ Hs K EW) as [K' [e Gr]].
      destruct r as [[]| |]; [| |intros H; discriminate H].
      * intros _ He. destruct (write_buffer_bg s _ _ _ _ _ Hs K A EW He) as [s' [EW' [Eu [K1 A1]]]]. rewrite EW'.
        destruct (write_buffer_keeps _ _ _ _ _ _ _ EW') as [Kc _]. cbn [fst snd]. split; [|reflexivity]. bsim s'.
      * intros _ He. exfalso. destruct (report_env EWrite w' K') as [_ [_ Er]]. rewrite Er, Gr, <- app_assoc in He.
        apply app_self_nil in He. destruct e; discriminate He.
  - (* OPlain *)
    destruct (f_poisoned s) eqn:Hp.
    + cbn [fst snd]. intros _ _. split; [|reflexivity]. bsim s.
    + destruct (write_buffer (unb s) (s_w xn) b) as [[[r w'] sn'] rot] eqn:EW. cbn [fst snd s_w obs_ok code_of].
      destruct r as [[]| |]; [|intros H; discriminate H | intros H; discriminate H].
      intros _ He. destruct (write_buffer_bg s _ _ _ _ _ Hs K A EW He) as [s' [EW' [Eu [K1 A1]]]]. rewrite EW'.
      destruct (write_buffer_keeps _ _ _ _ _ _ _ EW') as [Kc _]. cbn [fst snd]. split; [|reflexivity]. bsim s'.
  - (* OFlush *)
    destruct (f_poisoned s) eqn:Hp.
    + cbn [fst snd]. intros _ _. split; [|reflexivity]. bsim s.
    + rewrite flush_state_unb. destruct (flush_state s (s_w xn)) as [[ok w'] s'] eqn:EF. cbn [fst snd s_w]. intros _ _.
      destruct (U3_env _ _ _ _ _ (flush_state_U s (s_w xn)) K EF) as [K1 [A1 _]].
      destruct (flush_state_keeps _ _ _ _ _ EF) as [Kc _]. split; [|reflexivity]. bsim s'.
  - (* OTrigger *)
    destruct (f_poisoned s) eqn:Hp.
    + cbn [fst snd]. intros _ _. split; [|reflexivity]. bsim s.
    + cbn [unb f_cfg f_inner]. rewrite mount_next_nobg.
      destruct (mount_next (f_cfg s) (s_w xn) (clear_bg (f_inner s)) true) as [[r w'] stn'] eqn:EM. cbn [fst snd s_w obs_ok code_of].
      destruct r as [[]| |]; [|intros H; discriminate H | intros H; discriminate H]. intros _ _.
      destruct (mount_next_bg _ _ _ _ _ _ K A EM) as [st' [EM' [Ec [K1 A1]]]]. rewrite EM'. cbn [fst snd]. split; [|reflexivity].
      bsim (with_inner s st'). unfold unb, with_inner; cbn [f_cfg f_inner f_poisoned]; rewrite Ec; reflexivity.
  - (* OTick *)
    cbn [fst snd]. intros _ _. split; [|reflexivity]. bsim s.
  - (* OSnap *)
    cbn [fst snd]. intros _ _. split; [|reflexivity]. bsim s.
Qed.

Lemma step_bsim xb xn o : BSim xb xn -> basic_op o ->
  obs_ok (snd (step xn o)) -> werrs (s_w (fst (step xn o))) = werrs (s_w xn) ->
  BSim (fst (step xb o)) (fst (step xn o)) /\ snd (step xb o) = snd (step xn o).
Proof.
  intros S0 Hb. pose proof (apply_start_bsim xb xn o S0) as S.
  assert (W0 : s_w (apply_start xn o) = s_w xn).
  { unfold apply_start. destruct (s_flw xn) as [s|]; [|reflexivity]. destruct (names_computed o && negb (f_poisoned s)); reflexivity. }
  unfold step. rewrite <- W0. revert S. generalize (apply_start xb o) (apply_start xn o). clear S0 W0. intros yb yn S.
  pose proof S as [_ [_ [_ [_ [_ [s [Eb [En [Ha _]]]]]]]]].
  unfold step_core. rewrite Eb, En. unfold is_async. cbn [unb f_cfg nobg c_async]. rewrite Ha.
  apply sync_step_bsim; assumption.
Qed.

Lemma run_bsim : forall ops xb xn, BSim xb xn -> Forall basic_op ops -> clean_run xn ops ->
  BSim (fst (run xb ops)) (fst (run xn ops)) /\ snd (run xb ops) = snd (run xn ops).
Proof.
  induction ops as [|o r IH]; intros xb xn S Hb Hc; [split; [exact S | reflexivity]|].
  inversion Hb as [|o' r' Ho Hr]; subst. cbn [run clean_run] in *. destruct Hc as [Hok [He Hc]].
  pose proof (step_bsim xb xn o S Ho Hok He) as St.
  destruct (step xb o) as [xb1 ob1]. destruct (step xn o) as [xn1 on1]. cbn [fst snd] in *. destruct St as [S1 O1].
  specialize (IH xb1 xn1 S1 Hr Hc). destruct (run xb1 r) as [xb2 lb]. destruct (run xn1 r) as [xn2 ln]. cbn [fst snd] in *.
  destruct IH as [S2 O2]. split; [exact S2|]. rewrite O1, O2. reflexivity.
Qed.

Lemma stop_bsim xb xn : BSim xb xn ->
  s_w (fst (step xb OStop)) = s_w (fst (step xn OStop)) /\ snd (step xb OStop) = snd (step xn OStop).
Proof.
  intros S0. pose proof (apply_start_bsim xb xn OStop S0) as S. unfold step.
  revert S. generalize (apply_start xb OStop) (apply_start xn OStop). clear. intros xb xn [Ew [K [A [Et [Hd [s [Eb [En [Ha Hs]]]]]]]]].
  unfold step_core. rewrite Eb, En. unfold is_async. cbn [unb f_cfg nobg c_async]. rewrite Ha.
  cbn [sync_step]. rewrite Eb, En. cbn [unb f_poisoned f_inner]. fold (unb s). rewrite drop_state_unb, Ew. cbn [fst snd s_w].
  split; [|reflexivity]. destruct (f_poisoned s); [|reflexivity].
  unfold drain_acts. destruct (f_inner s) as [|[rs|] wr p]; reflexivity.
Qed.

Lemma start_bsim c t0 off : c_async c = false -> c_symlink c = false ->
  BSim (fst (step (sys0 t0 off) (OStart c))) (fst (step (sys0 t0 off) (OStart (nobg c)))).
Proof. intros Ha Hs. cbn. repeat split. exists (new_flw c). repeat split; assumption. Qed.

(* HYPOTHESIS: the run with cleanup in the logging thread returns normal results and reports nothing.
   CONCLUSION: with cleanup in the background thread (and the scheduling assumption: each request is finished before
   the next operation) the run goes through the same worlds and returns the same observations; also after the drop. *)
Theorem bg_sim_whole c t0 off ops :
  c_async c = false -> c_symlink c = false -> Forall basic_op ops ->
  clean_run (fst (step (sys0 t0 off) (OStart (nobg c)))) ops ->
  let rb := run (sys0 t0 off) (OStart c :: ops) in
  let rn := run (sys0 t0 off) (OStart (nobg c) :: ops) in
  let rb' := run (sys0 t0 off) (OStart c :: ops ++ [OStop]) in
  let rn' := run (sys0 t0 off) (OStart (nobg c) :: ops ++ [OStop]) in
  (s_w (fst rb) = s_w (fst rn) /\ snd rb = snd rn) /\ (s_w (fst rb') = s_w (fst rn') /\ snd rb' = snd rn').
Proof.
  intros Ha Hs Hb Hc. cbn zeta. cbn [run]. pose proof (start_bsim c t0 off Ha Hs) as S0.
  assert (O0 : snd (step (sys0 t0 off) (OStart c)) = ObsRes 0%N false) by reflexivity.
  assert (O0' : snd (step (sys0 t0 off) (OStart (nobg c))) = ObsRes 0%N false) by reflexivity.
  destruct (step (sys0 t0 off) (OStart c)) as [xb0 ob0]. destruct (step (sys0 t0 off) (OStart (nobg c))) as [xn0 on0].
  cbn [fst snd] in *. subst ob0 on0. rewrite !run_app.
  destruct (run_bsim ops xb0 xn0 S0 Hb Hc) as [S1 E1].
  destruct (run xb0 ops) as [xb1 lb]. destruct (run xn0 ops) as [xn1 ln]. cbn [fst snd] in *. subst lb.
  split; [split; [apply S1 | reflexivity]|].
  destruct (stop_bsim xb1 xn1 S1) as [W2 O2]. cbn [run].
  destruct (step xb1 OStop) as [xb2 ob2]. destruct (step xn1 OStop) as [xn2 on2]. cbn [fst snd] in *. subst ob2.
  split; [exact W2 | reflexivity].
Qed.
Print Assumptions bg_sim_whole.

(* ------------------------------------------------------------------ Numbers naming with a cleanup strategy *)
(* the runs of numbers_cleanup_stream report nothing: the cleanup never fails there *)
Lemma numk_step_clean c crit k x a o : numkcfg c crit k -> RelK c crit k x a -> basic_op o ->
  kside c k (nclosed (a_step a o (rot_of (snd (step x o))))) ->
  obs_ok (snd (step x o)) /\ werrs (s_w (fst (step x o))) = werrs (s_w x).
Proof.
  intros Hcfg R Hb Hside. split; [exact (step_rel_k_ok c crit k x a o Hcfg R Hb Hside)|]. revert Hside.
  rewrite (step_sync_rel_k c crit k x a o Hcfg R). destruct R as [Ht [Ha R]].
  assert (WB : forall b, exists s, s_flw x = Some s /\ f_poisoned s = false /\
            let '(r, w', s', rot) := write_buffer s (s_w x) b in
            kside c k (nclosed (a_step a (OWrite b) rot)) -> r = Ok tt /\ werrs w' = werrs (s_w x)).
  { intros b. destruct a as [[closed cur]|].
    - destruct R as [wr [roll [Es [I [V [Z RS]]]]]]. rewrite <- V in Z.
      exists (st_ofk c k (length closed) roll wr). split; [exact Es|]. split; [reflexivity|].
      pose proof (write_buffer_rotflag c k (length closed) roll wr (s_w x) b) as RF.
      destruct (write_buffer (st_ofk c k (length closed) roll wr) (s_w x) b) as [[[r w'] s'] rot] eqn:E. cbn [snd] in RF. subst rot.
      intros Hside.
      assert (Hs : rotation_necessary (s_w x) roll = true -> kside c k (S (length closed))).
      { intros Er. rewrite Er in Hside. cbn [a_step nclosed] in Hside. rewrite app_length in Hside. cbn [length] in Hside.
        replace (length closed + 1) with (S (length closed)) in Hside by lia. exact Hside. }
      destruct (write_active_k c crit k (s_w x) wr closed roll b Hcfg I Z Hs) as [w1 [wr' [roll' [closed' [E' [_ [_ [S' _]]]]]]]].
      rewrite E in E'. injection E' as -> -> _. split; [reflexivity | exact (same_env_errs _ _ S')].
    - destruct R as [Es [Q [Hn Hi]]].
      exists (new_flw c). split; [exact Es|]. split; [reflexivity|].
      destruct (write_buffer (new_flw c) (s_w x) b) as [[[r w'] s'] rot] eqn:E. intros Hside.
      assert (Hs0 : kside c k 0) by (eapply kside_le; [|exact Hside]; lia).
      destruct (initialize_empty_k c crit k (s_w x) Hcfg Hs0 Q Hn Hi) as [w1 [wr [roll [Ei [I [V [Z [S1 _]]]]]]]].
      rewrite (write_buffer_init c (s_w x) b _ _ _ w1 Ei) in E.
      change {| f_cfg := c; f_inner := Active (Some (mk_rsk k (NSNumR 0) roll)) wr (cname c); f_poisoned := false |}
        with (st_ofk c k (length (@nil bytes)) roll wr) in E.
      pose proof (write_buffer_rotflag c k (length (@nil bytes)) roll wr w1 b) as RF. rewrite E in RF. cbn [snd] in RF. subst rot.
      assert (Z0 : roll_size_ok roll (length (cur_view w1 wr))) by (rewrite V; exact Z).
      assert (Hs : rotation_necessary w1 roll = true -> kside c k (S (length (@nil bytes)))).
      { intros Er. rewrite Er in Hside. cbn [a_step nclosed app length] in Hside. exact Hside. }
      assert (I0 : NumKInv c w1 wr [] (k_lo k (length (@nil bytes))) (k_mid k (length (@nil bytes))))
        by (cbn [length]; rewrite k_lo_0, k_mid_0; exact I).
      destruct (write_active_k c crit k w1 wr [] roll b Hcfg I0 Z0 Hs) as [w2 [wr' [roll' [closed' [E' [_ [_ [S' _]]]]]]]].
      rewrite E in E'. injection E' as -> -> _. split; [reflexivity|]. rewrite (same_env_errs _ _ S'). exact (same_env_errs _ _ S1). }
  destruct o; try contradiction; cbn [sync_step].
  - destruct (WB (s_tl x ++ b)) as [s [Es [Hp W]]]. rewrite Es, Hp. rewrite Ht in *. cbn [app] in *.
    destruct (write_buffer s (s_w x) b) as [[[r w'] s'] rot]. cbn [fst snd s_w rot_of]. intros Hside.
    destruct (W Hside) as [-> He]. exact He.
  - destruct (WB b) as [s [Es [Hp W]]]. rewrite Es, Hp.
    destruct (write_buffer s (s_w x) b) as [[[r w'] s'] rot]. cbn [fst snd s_w rot_of]. intros Hside.
    destruct (W Hside) as [-> He]. exact He.
  - intros _. destruct a as [[closed cur]|].
    + destruct R as [wr [roll [Es [I _]]]]. rewrite Es. cbn [st_ofk f_poisoned].
      destruct (flush_active_k c k (s_w x) wr closed _ _ roll I) as [w' [wr' [E [_ [_ [_ S']]]]]].
      fold (st_ofk c k (length closed) roll wr). rewrite E. exact (same_env_errs _ _ S').
    + destruct R as [Es _]. rewrite Es. reflexivity.
  - destruct a as [[closed cur]|].
    + destruct R as [wr [roll [Es [I _]]]]. rewrite Es. cbn [st_ofk f_poisoned f_cfg f_inner].
      destruct (mount_next c (s_w x) (Active (Some (mk_rsk k (NSNumR (N.of_nat (length closed))) roll)) wr (cname c)) true)
        as [[r1 w1] st1] eqn:EM. cbn [rot_of a_step snd fst s_w]. intros Hside.
      assert (Hs : kside c k (S (length closed))).
      { cbn [nclosed] in Hside. rewrite app_length in Hside. cbn [length] in Hside.
        replace (length closed + 1) with (S (length closed)) in Hside by lia. exact Hside. }
      destruct (mount_next_rotates_k c crit k (s_w x) wr closed roll true Hcfg Hs I eq_refl) as [w' [wr' [roll' [E [_ [_ [_ [S' _]]]]]]]].
      rewrite EM in E. injection E as _ -> _. exact (same_env_errs _ _ S').
    + intros _. destruct R as [Es _]. rewrite Es. reflexivity.
  - intros _. reflexivity.
  - intros _. reflexivity.
Qed.

Lemma numk_run_clean c crit k : numkcfg c crit k -> forall ops x a, RelK c crit k x a -> Forall basic_op ops ->
  kside c k (nclosed (a_run a ops (snd (run x ops)))) -> clean_run x ops.
Proof.
  intros Hcfg. induction ops as [|o r IH]; intros x a R Hb Hside; [exact I|].
  cbn [run clean_run] in *. inversion Hb as [|o' r' Ho Hr]; subst.
  pose proof (step_rel_k c crit k x a o Hcfg R Ho) as S. pose proof (numk_step_clean c crit k x a o Hcfg R Ho) as C.
  destruct (step x o) as [x1 ob].
  specialize (IH x1 (a_step a o (rot_of ob))). destruct (run x1 r) as [x2 obs]. cbn [fst snd a_run] in *.
  assert (Hs1 : kside c k (nclosed (a_step a o (rot_of ob)))) by (eapply kside_le; [apply nclosed_run | exact Hside]).
  destruct (S Hs1) as [R1 _]. destruct (C Hs1) as [K E]. split; [exact K|]. split; [exact E|]. apply IH; assumption.
Qed.

(* the configuration is of the family numkcfg but for c_bg *)
Lemma numkcfg_nobg c crit k : numkcfg (nobg c) crit k -> c_async c = false /\ c_symlink c = false.
Proof. intros (_ & _ & Hs & Ha & _). split; assumption. Qed.

(* the worlds of numbers_cleanup_stream, with cleanup in the background thread: identical *)
Theorem bg_worlds_numbers_cleanup c crit k t0 off ops :
  numkcfg (nobg c) crit k -> Forall basic_op ops ->
  kside (nobg c) k (nclosed (a_run None ops (snd (run (fst (step (sys0 t0 off) (OStart (nobg c)))) ops)))) ->
  let rb := run (sys0 t0 off) (OStart c :: ops) in
  let rn := run (sys0 t0 off) (OStart (nobg c) :: ops) in
  let rb' := run (sys0 t0 off) (OStart c :: ops ++ [OStop]) in
  let rn' := run (sys0 t0 off) (OStart (nobg c) :: ops ++ [OStop]) in
  (s_w (fst rb) = s_w (fst rn) /\ snd rb = snd rn) /\ (s_w (fst rb') = s_w (fst rn') /\ snd rb' = snd rn').
Proof.
  intros Hcfg Hb Hside. destruct (numkcfg_nobg c crit k Hcfg) as [Ha Hs].
  apply bg_sim_whole; try assumption.
  exact (numk_run_clean (nobg c) crit k Hcfg ops _ None (start_rel_k (nobg c) crit k t0 off) Hb Hside).
Qed.

(* in particular the observations, hence the reader's view a, are the same *)
Corollary bg_view_numbers_cleanup c crit k t0 off ops :
  numkcfg (nobg c) crit k -> Forall basic_op ops ->
  kside (nobg c) k (nclosed (a_run None ops (snd (run (fst (step (sys0 t0 off) (OStart (nobg c)))) ops)))) ->
  a_run None ops (snd (run (fst (step (sys0 t0 off) (OStart c))) ops))
  = a_run None ops (snd (run (fst (step (sys0 t0 off) (OStart (nobg c)))) ops)).
Proof.
  intros Hcfg Hb Hside. destruct (bg_worlds_numbers_cleanup c crit k t0 off ops Hcfg Hb Hside) as [[_ E] _]. cbn zeta in E.
  cbn [run] in E. destruct (step (sys0 t0 off) (OStart c)) as [xb0 ob0]. destruct (step (sys0 t0 off) (OStart (nobg c))) as [xn0 on0].
  cbn [fst]. destruct (run xb0 ops) as [xb1 lb]. destruct (run xn0 ops) as [xn1 ln]. cbn [snd] in *. injection E as _ ->. reflexivity.
Qed.

(* the views mention the configuration through the file names only *)
Lemma kreader_view_nobg c f closed cur lo mid : kreader_view (nobg c) f closed cur lo mid -> kreader_view c f closed cur lo mid.
Proof. intros [[A B C D E] H]. split; [constructor; assumption | exact H]. Qed.

(* numbers_cleanup_stream for cleanup in the background thread *)
Theorem numbers_cleanup_stream_bg c crit k t0 off ops :
  numkcfg (nobg c) crit k -> Forall basic_op ops ->
  let a := a_run None ops (snd (run (fst (step (sys0 t0 off) (OStart (nobg c)))) ops)) in
  kside (nobg c) k (nclosed a) ->
  let f := wfs (s_w (fst (run (sys0 t0 off) (OStart c :: ops ++ [OStop])))) in
  flat a = written ops
  /\ match a with
     | None => names f = []
     | Some (closed, cur) => kreader_view c f closed cur (k_lo k (length closed)) (k_mid k (length closed))
     end.
Proof.
  intros Hcfg Hb a Hside f. destruct (bg_worlds_numbers_cleanup c crit k t0 off ops Hcfg Hb Hside) as [_ [E _]]. cbn zeta in E.
  unfold f. rewrite E.
  pose proof (numbers_cleanup_stream (nobg c) crit k t0 off ops Hcfg Hb Hside) as [T1 T2]. split; [exact T1|].
  fold a in T2. destruct a as [[closed cur]|]; [apply kreader_view_nobg; exact T2 | exact T2].
Qed.

(* numbers_cleanup_properties for cleanup in the background thread.  closed, cur: the reader's view that the run would
   leave without cleanup (by bg_view_numbers_cleanup it is the same for both variants) *)
Theorem numbers_cleanup_bg c crit k n m t0 off ops closed cur :
  numkcfg (nobg c) crit k -> klim k = Some (n, m) -> Forall basic_op ops ->
  sfx_ok (c_spec c) ->
  a_run None ops (snd (run (fst (step (sys0 t0 off) (OStart (nobg c)))) ops)) = Some (closed, cur) ->
  let f := wfs (s_w (fst (run (sys0 t0 off) (OStart c :: ops ++ [OStop])))) in
  let L := length closed in let lo := L - (n + m) in let mid := L - n in
  concat closed ++ cur = written ops
  /\ (forall x, (exists j, lookup f x = Some j) <->
        x = cname c \/ (exists i, mid <= i < L /\ x = rname c i) \/ (exists i, lo <= i < mid /\ x = gname c i))
  /\ NoDup (dir_names f)
  /\ L - mid <= n /\ mid - lo <= m
  /\ (forall off', list_log_gz off' (c_spec c) (fixed0 c) f IFNum = Some (listing c lo mid L))
  /\ (forall i, mid <= i < L -> lookup f (gname c i) = None /\
        exists fl, file_of f (rname c i) = Some fl /\ fdata fl = nth i closed [] /\ fgz fl = 0%N /\ fdir fl = false)
  /\ (forall i, lo <= i < mid -> lookup f (rname c i) = None /\
        exists fl, file_of f (gname c i) = Some fl /\ fdata fl = nth i closed [] /\ fgz fl = 1%N /\ fdir fl = false)
  /\ (forall i, i < lo -> lookup f (rname c i) = None /\ lookup f (gname c i) = None)
  /\ written ops = concat (firstn lo closed) ++ concat (map (fun i => data_at f (entry c mid i)) (seq lo (L - lo))) ++ cur
  /\ (exists fl, file_of f (cname c) = Some fl /\ fdata fl = cur /\ fgz fl = 0%N /\ fdir fl = false).
Proof.
  intros Hcfg Hk Hb Hsfx Ea f.
  assert (Hside : kside (nobg c) k (nclosed (a_run None ops (snd (run (fst (step (sys0 t0 off) (OStart (nobg c)))) ops))))).
  { rewrite Ea. unfold kside. rewrite Hk. exact Hsfx. }
  destruct (bg_worlds_numbers_cleanup c crit k t0 off ops Hcfg Hb Hside) as [_ [E _]]. cbn zeta in E.
  unfold f. rewrite E.
  exact (numbers_cleanup_properties (nobg c) crit k n m t0 off ops closed cur Hcfg Hk Hb Hsfx Ea).
Qed.

(* size criterion: the view is a function of the operations *)
Theorem numbers_cleanup_partition_bg c k m t0 off ops :
  numkcfg (nobg c) (CSize m) k -> Forall basic_op ops ->
  kside (nobg c) k (nclosed (s_run m None ops)) ->
  let f := wfs (s_w (fst (run (sys0 t0 off) (OStart c :: ops ++ [OStop])))) in
  match s_run m None ops with
  | None => names f = []
  | Some (closed, cur) =>
    closed ++ [cur] = expected_files m None (items false ops)
    /\ kreader_view c f closed cur (k_lo k (length closed)) (k_mid k (length closed))
  end.
Proof.
  intros Hcfg Hb Hside f.
  assert (Hside' : kside (nobg c) k (nclosed (a_run None ops (snd (run (fst (step (sys0 t0 off) (OStart (nobg c)))) ops))))).
  { pose proof (start_rel_k (nobg c) (CSize m) k t0 off) as R0.
    rewrite (run_size_k' (nobg c) k m Hcfg ops _ None R0 Hb Hside). exact Hside. }
  destruct (bg_worlds_numbers_cleanup c (CSize m) k t0 off ops Hcfg Hb Hside') as [_ [E _]]. cbn zeta in E.
  unfold f. rewrite E. pose proof (numbers_cleanup_partition (nobg c) k m t0 off ops Hcfg Hb Hside) as T. cbn zeta in T.
  destruct (s_run m None ops) as [[closed cur]|]; [|exact T]. destruct T as [T1 T2]. split; [exact T1 | apply kreader_view_nobg; exact T2].
Qed.

Theorem numbers_cleanup_no_panic_bg c crit k t0 off ops :
  numkcfg (nobg c) crit k -> Forall basic_op ops ->
  kside (nobg c) k (nclosed (a_run None ops (snd (run (fst (step (sys0 t0 off) (OStart (nobg c)))) ops)))) ->
  Forall obs_ok (snd (run (sys0 t0 off) (OStart c :: ops ++ [OStop]))).
Proof.
  intros Hcfg Hb Hside. destruct (bg_worlds_numbers_cleanup c crit k t0 off ops Hcfg Hb Hside) as [_ [_ E]]. cbn zeta in E.
  rewrite E. exact (numbers_cleanup_no_panic (nobg c) crit k t0 off ops Hcfg Hb Hside).
Qed.

Print Assumptions bg_worlds_numbers_cleanup.
Print Assumptions numbers_cleanup_stream_bg.
Print Assumptions numbers_cleanup_bg.
Print Assumptions numbers_cleanup_partition_bg.
Print Assumptions numbers_cleanup_no_panic_bg.

(* ------------------------------------------------------------------ examples *)
Section Examples.
Import String.StringSyntax.
Definition with_bg (c : config) : config :=
  {| c_spec := c_spec c; c_append := c_append c; c_cap := c_cap c; c_rot := c_rot c; c_utc := c_utc c;
     c_symlink := c_symlink c; c_bg := true; c_async := c_async c; c_start := c_start c |}.

(* the history of NumCleanup.v (six records, a rotation before each but the first), KLogGz 1 1: with the cleanup in the
   background thread and in the logging thread - the same directory, the same observations, nothing reported *)
Definition exb_c : config := with_bg (ex_cfg (KLogGz 1 1) log_sfx).
Example exb_nobg : nobg exb_c = ex_cfg (KLogGz 1 1) log_sfx.
Proof. reflexivity. Qed.

Example exb_side_by_side :
  let rb := run (sys0 0 0) (OStart exb_c :: ex_ops ++ [OSnap; OStop]) in
  let rn := run (sys0 0 0) (OStart (nobg exb_c) :: ex_ops ++ [OSnap; OStop]) in
  snapshot (s_w (fst rb)) = snapshot (s_w (fst rn)) /\ snd rb = snd rn
  /\ snapshot (s_w (fst rb))
     = ObsSnap [(bs "a_r00003.log.gz"%string, 1%N, bs "abcd"%string ++ [3%N]);
                (bs "a_r00004.log"%string, 0%N, bs "abcd"%string ++ [4%N]);
                (bs "a_rCURRENT.log"%string, 0%N, bs "abcd"%string ++ [5%N])] None []
  /\ wacts (s_w (fst rb)) = 0.
Proof. vm_compute. repeat split. Qed.

(* the flag in the writer state is what differs under way *)
Example exb_flag :
  let bg_of x := match s_flw x with
                 | Some s => match f_inner s with Active (Some rs) _ _ => Some (rs_bg rs) | _ => None end
                 | None => None end in
  (bg_of (fst (run (sys0 0 0) (OStart exb_c :: ex_ops))), bg_of (fst (run (sys0 0 0) (OStart (nobg exb_c) :: ex_ops))))
  = (Some true, Some false).
Proof. vm_compute. reflexivity. Qed.

(* instance of numbers_cleanup_partition_bg: the reader's view after ex_ops with cleanup in the background thread *)
Example exb_instance :
  let f := wfs (s_w (fst (run (sys0 0 0) (OStart exb_c :: ex_ops ++ [OStop])))) in
  let closed := map (fun i => bs "abcd"%string ++ [N.of_nat i]) (seq 0 5) in
  let cur := bs "abcd"%string ++ [5%N] in
  kreader_view exb_c f closed cur 3 4.
Proof.
  intros f closed cur.
  assert (Es : s_run 3 None ex_ops = Some (closed, cur)) by (vm_compute; reflexivity).
  pose proof (numbers_cleanup_partition_bg exb_c (KLogGz 1 1) 3 0 0 ex_ops (ex_numkcfg _ _) ex_ops_basic) as T.
  cbv zeta in T. rewrite Es in T. fold f in T.
  destruct T as [_ V]. { exact ex_sfx_ok. }
  exact V.
Qed.

(* Where the two variants differ (not covered by the theorems, and the reason for their hypothesis): when the cleanup
   fails - here by an injected fault in its directory listing; OSetFaults is not a basic operation - the logging thread
   reports the failed rotation (ELogFile), whereas nobody looks at the result of the background thread *)
Definition exb_ops_fault : list op :=
  [OWrite (bs "abcd"%string); OSetFaults [false; false; true]; OWrite (bs "efgh"%string)].
Example exb_fault :
  (werrs (s_w (fst (run (sys0 0 0) (OStart exb_c :: exb_ops_fault)))),
   werrs (s_w (fst (run (sys0 0 0) (OStart (nobg exb_c) :: exb_ops_fault)))))
  = ([], [ELogFile]).
Proof. vm_compute. reflexivity. Qed.
End Examples.
