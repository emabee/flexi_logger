(* The cleanup (list_and_cleanup.rs: remove_or_compress_too_old_logfiles_impl) in a world without faults and kills:
   what compress_file, cleanup_loop and remove_redundant do to the file system.
   Result: the entries of the (newest-first) listing before position log_limit are kept as they are, the entries
   from log_limit up to total are kept as archives (compressed, content preserved, original removed), everything
   from position total on is deleted; nothing else is touched.
   The entry equal to cur (the current output file, o_current) is skipped wherever it is listed (Section Skip); for
   cur = None no entry is skipped and the result is as stated (part 3); when cur is at a kept position or not listed,
   cur makes no difference (part 4). *)
Require Import FL.Base.Bytes FL.Base.BytesFacts FL.Base.PathName FL.Fs.Fs FL.Fs.FsFacts FL.Names.FileSpec
               FL.Flw.Model FL.Flw.ModelFacts.
Open Scope nat_scope.

(* ------------------------------------------------------------------ names: gz_name appends ".gz" *)
Lemma nth_error_split {A} (s : list A) i c : nth_error s i = Some c -> s = firstn i s ++ c :: skipn (S i) s.
Proof.
  revert i; induction s as [|x s IH]; intros [|i] H; cbn in H; try discriminate.
  - injection H as ->. reflexivity.
  - cbn [firstn skipn app]. f_equal. apply IH. exact H.
Qed.

Lemma rfind_byte_nth c s i : rfind_byte c s = Some i -> nth_error s i = Some c.
Proof.
  revert i; induction s as [|x s IH]; intros i H; cbn [rfind_byte] in H; [discriminate|].
  destruct (rfind_byte c s) as [j|] eqn:E.
  - injection H as <-. cbn [nth_error]. apply IH. reflexivity.
  - destruct (N.eqb_spec x c) as [->|_]; [|discriminate]. injection H as <-. reflexivity.
Qed.

Lemma rfind_byte_app c a b :
  rfind_byte c (a ++ b) = match rfind_byte c b with Some i => Some (length a + i) | None => rfind_byte c a end.
Proof.
  induction a as [|x a IH]; cbn [app rfind_byte length].
  - destruct (rfind_byte c b); reflexivity.
  - rewrite IH. destruct (rfind_byte c b); reflexivity.
Qed.

(* a name is its stem, followed by a dot and the extension if there is one *)
Lemma split_at_last_dot_spec n :
  n = file_stem n ++ match extension n with Some e => dot :: e | None => [] end.
Proof.
  unfold file_stem, extension, split_at_last_dot.
  destruct (beq n [dot; dot]); cbn [fst snd]; [rewrite app_nil_r; reflexivity|].
  destruct (rfind_byte dot n) as [[|i]|] eqn:E; cbn [fst snd]; try (rewrite app_nil_r; reflexivity).
  apply nth_error_split. apply rfind_byte_nth. exact E.
Qed.

Definition dot_gz : bytes := dot :: gz_sfx.

Theorem gz_name_app n : gz_name n = n ++ dot_gz.
Proof.
  unfold gz_name, set_extension, dot_gz. pose proof (split_at_last_dot_spec n) as S.
  destruct (extension n) as [e|].
  - rewrite S at 2. rewrite <- app_assoc. f_equal. destruct e; reflexivity.
  - rewrite app_nil_r in S. rewrite <- S. reflexivity.
Qed.

Lemma gz_name_neq n : gz_name n <> n.
Proof.
  rewrite gz_name_app. intros H. apply (f_equal (@length N)) in H. rewrite app_length in H. cbn in H. lia.
Qed.
Lemma gz_name_inj a b : gz_name a = gz_name b -> a = b.
Proof. rewrite !gz_name_app. apply app_inv_tail. Qed.

(* the name of an archive has the extension gz and names its original - except for the empty name *)
Lemma split_dot_gz n : n <> [] -> split_at_last_dot (n ++ dot_gz) = (n, Some gz_sfx).
Proof.
  intros Hn. unfold split_at_last_dot.
  assert (B : beq (n ++ dot_gz) [dot; dot] = false).
  { destruct (beq_spec (n ++ dot_gz) [dot; dot]) as [H|_]; [|reflexivity].
    apply (f_equal (@length N)) in H. rewrite app_length in H. cbn in H. lia. }
  assert (K : forall (l : bytes) r, skipn (S (length l)) (l ++ dot :: r) = r).
  { induction l as [|y l IH]; intros r; [reflexivity|]. cbn [length app]. rewrite skipn_cons. apply IH. }
  rewrite B, rfind_byte_app.
  replace (rfind_byte dot dot_gz) with (Some 0) by reflexivity. cbv iota beta. rewrite Nat.add_0_r.
  destruct n as [|x n]; [congruence|]. cbn [length].
  change (S (length n)) with (length (x :: n)). f_equal.
  - rewrite firstn_app, Nat.sub_diag, firstn_all. cbn [firstn]. apply app_nil_r.
  - f_equal. apply K.
Qed.

Lemma ext_is_gz_name n : n <> [] -> ext_is (gz_name n) gz_sfx = true.
Proof. intros Hn. unfold ext_is, extension. rewrite gz_name_app, split_dot_gz by assumption. cbn [snd]. apply beq_refl. Qed.
Lemma strip_gz_name n : n <> [] -> set_extension (gz_name n) [] = n.
Proof. intros Hn. unfold set_extension, file_stem. rewrite gz_name_app, split_dot_gz by assumption. cbn [fst]. apply app_nil_r. Qed.

(* the empty name is the exception (Path::new("").with_extension("gz") is ".gz", a name without extension) *)
Example gz_name_empty : gz_name [] = dot_gz /\ ext_is (gz_name []) gz_sfx = false /\ extension (gz_name []) = None.
Proof. vm_compute. repeat split. Qed.

(* the test of the loop *)
Lemma loop_test_ext_is {A} n (x y : A) :
  match extension n with Some e => if beq e gz_sfx then x else y | None => y end = if ext_is n gz_sfx then x else y.
Proof. unfold ext_is. destruct (extension n); reflexivity. Qed.
Lemma ext_is_iff n : ext_is n gz_sfx = true <-> extension n = Some gz_sfx.
Proof.
  unfold ext_is. destruct (extension n) as [e|]; split; intros H; try discriminate.
  - apply beq_eq in H. congruence.
  - injection H as ->. apply beq_refl.
Qed.

(* ------------------------------------------------------------------ the file-system view of one name *)
(* the name m means the same in f' as in f: same inode, same file (content, kind, birth time) *)
Definition same_at (f f' : fs) (m : bytes) : Prop := lookup f' m = lookup f m /\ file_of f' m = file_of f m.

Lemma same_at_refl f m : same_at f f m.
Proof. split; reflexivity. Qed.
Lemma same_at_trans f1 f2 f3 m : same_at f1 f2 m -> same_at f2 f3 m -> same_at f1 f3 m.
Proof. intros [A1 B1] [A2 B2]. split; congruence. Qed.
Lemma same_at_content f f' m i : same_at f f' m -> lookup f m = Some i ->
  lookup f' m = Some i /\ inode f' i = inode f i.
Proof.
  intros [L F] H. unfold file_of in F. rewrite L, H in F. split; [congruence|]. injection F as F. exact F.
Qed.

(* n has been compressed on the way from f to f': n is gone and gz_name n is a complete archive of the old content *)
Definition archived (f f' : fs) (n : bytes) : Prop :=
  exists i j, lookup f n = Some i /\ lookup f' n = None /\ lookup f' (gz_name n) = Some j
    /\ fdata (inode f' j) = content f i /\ fgz (inode f' j) = 1%N /\ fdir (inode f' j) = false.

Lemma archived_before f0 f f' n : same_at f0 f n -> archived f f' n -> archived f0 f' n.
Proof.
  intros S (i & j & Li & Ln & Lg & D & G & Dr). exists i, j.
  destruct S as [L F]. unfold file_of in F. rewrite Li in L. rewrite Li, <- L in F. injection F as F.
  repeat split; auto. rewrite D. unfold content. rewrite F. reflexivity.
Qed.
Lemma archived_after f f1 f' n : archived f f1 n -> same_at f1 f' n -> same_at f1 f' (gz_name n) -> archived f f' n.
Proof.
  intros (i & j & Li & Ln & Lg & D & G & Dr) [L1 _] Sg. exists i, j.
  destruct (same_at_content _ _ _ _ Sg Lg) as [Lg' I]. rewrite I.
  repeat split; auto. congruence.
Qed.

(* the name m is not a sub-directory (File::create on a directory fails) *)
Definition not_dir (f : fs) (m : bytes) : Prop := match file_of f m with Some fl => fdir fl = false | None => True end.
Lemma not_dir_same_at f f' m : same_at f f' m -> not_dir f m -> not_dir f' m.
Proof. intros [_ F]. unfold not_dir. rewrite F. auto. Qed.
Lemma not_dir_missing f m : lookup f m = None -> not_dir f m.
Proof. intros H. unfold not_dir, file_of. rewrite H. exact I. Qed.

(* ------------------------------------------------------------------ set_gz *)
Lemma set_gz_spec f i st d : i < length (inodes f) ->
  (forall m, lookup (set_gz f i st d) m = lookup f m)
  /\ length (inodes (set_gz f i st d)) = length (inodes f)
  /\ inode (set_gz f i st d) i = {| fdata := d; fgz := st; fborn := fborn (inode f i); fdir := false |}
  /\ (forall j, j <> i -> inode (set_gz f i st d) j = inode f j).
Proof.
  intros Hi. split; [reflexivity|]. split; [apply upd_length|]. split.
  - unfold inode at 1. cbn [set_gz inodes]. rewrite nth_upd, Nat.eqb_refl by assumption. reflexivity.
  - intros j Hj. unfold inode at 1. cbn [set_gz inodes]. rewrite nth_upd by assumption.
    destruct (Nat.eqb_spec j i); [congruence | reflexivity].
Qed.
Lemma wf_set_gz f i st d : fs_wf f -> fs_wf (set_gz f i st d).
Proof.
  intros [Hb Hj]. split.
  - intros a j H. cbn [set_gz inodes]. rewrite upd_length. eapply Hb. exact H.
  - exact Hj.
Qed.

Lemma p_remove_quiet w a i : quiet w -> lookup (wfs w) a = Some i ->
  exists w', p_remove w a = (true, w') /\ wfs w' = unlink (wfs w) a /\ same_env w w'.
Proof.
  intros Q H. unfold p_remove. rewrite tick_quiet by assumption. rewrite H.
  eexists. split; [reflexivity|]. apply effect_quiet. assumption.
Qed.
Lemma p_remove_quiet_missing w a : quiet w -> lookup (wfs w) a = None -> p_remove w a = (false, w).
Proof. intros Q H. unfold p_remove. rewrite tick_quiet by assumption. rewrite H. reflexivity. Qed.

(* ------------------------------------------------------------------ 1. compress_file *)
(* The side condition on gz_name n: it is not a directory (File::create fails on one, see compress_file_directory).
   Nothing else is needed: it differs from n (gz_name_neq); if it exists already it is truncated and rewritten
   (it keeps its inode and birth time), otherwise it is created.
   That n is a regular plain file is not needed either: the archive simply holds what the inode of n holds. *)
Theorem compress_file_quiet w n i :
  quiet w -> fs_wf (wfs w) -> lookup (wfs w) n = Some i -> not_dir (wfs w) (gz_name n) ->
  exists w' j,
    compress_file w n = (true, w') /\ same_env w w' /\ fs_wf (wfs w')
    /\ lookup (wfs w') n = None
    /\ lookup (wfs w') (gz_name n) = Some j
    /\ inode (wfs w') j = {| fdata := content (wfs w) i; fgz := 1%N;
                             fborn := match file_of (wfs w) (gz_name n) with Some fl => fborn fl | None => wnow w end;
                             fdir := false |}
    /\ (forall k, lookup (wfs w) (gz_name n) = Some k -> j = k)
    /\ (lookup (wfs w) (gz_name n) = None -> j = length (inodes (wfs w)))
    /\ (forall m, m <> n -> m <> gz_name n -> same_at (wfs w) (wfs w') m)
    /\ (forall k, k < length (inodes (wfs w)) -> k <> j -> inode (wfs w') k = inode (wfs w) k).
Proof.
  intros Q W Hn ND. pose proof (gz_name_neq n) as Hg.
  unfold compress_file. rewrite (tick_quiet w Q). cbv beta iota zeta.
  replace (match file_of (wfs w) (gz_name n) with Some fl => fdir fl | None => false end) with false
    by (unfold not_dir in ND; destruct (file_of (wfs w) (gz_name n)); congruence).
  pose proof (open_trunc_spec (wfs w) (gz_name n) 2%N (wnow w) W) as OT.
  destruct (effect_quiet w (fun f => fst (open_trunc f (gz_name n) 2%N (wnow w))) Q) as [F2 S2].
  set (w2 := effect w (fun f => fst (open_trunc f (gz_name n) 2%N (wnow w)))) in *.
  destruct (open_trunc (wfs w) (gz_name n) 2%N (wnow w)) as [f1 j] eqn:EOT. cbn [fst snd] in *.
  destruct OT as (W1 & Lg1 & Hj1 & C1 & Hlen & Lo1 & Io1 & Jnew & Jold).
  rewrite (tick_quiet w2 (proj1 S2)). cbv beta iota zeta.
  assert (Ln1 : lookup (wfs w2) n = Some i) by (rewrite F2, Lo1 by congruence; exact Hn).
  rewrite Ln1.
  pose proof (wf_bound _ W _ _ Hn) as Hi.
  assert (Hij : i <> j).
  { intros ->. destruct (lookup (wfs w) (gz_name n)) as [k|] eqn:Eg.
    - specialize (Jold k eq_refl). subst k. apply Hg. apply (wf_inj _ W _ _ j); assumption.
    - specialize (Jnew eq_refl). lia. }
  assert (Ci : content (wfs w2) i = content (wfs w) i) by (unfold content; rewrite F2, Io1 by assumption; reflexivity).
  rewrite Ci. rewrite (tick_quiet w2 (proj1 S2)). cbv beta iota zeta.
  destruct (effect_quiet w2 (fun f => f) (proj1 S2)) as [F5 S5].
  set (w5 := effect w2 (fun f => f)) in *.
  rewrite (tick_quiet w5 (proj1 S5)). cbv beta iota zeta.
  destruct (effect_quiet w5 (fun f => set_gz f j 1%N (content (wfs w) i)) (proj1 S5)) as [F7 S7].
  set (w7 := effect w5 (fun f => set_gz f j 1%N (content (wfs w) i))) in *.
  rewrite F5, F2 in F7.
  destruct (set_gz_spec f1 j 1%N (content (wfs w) i) Hj1) as (SL & SLen & SI & SO).
  assert (Ln7 : lookup (wfs w7) n = Some i) by (rewrite F7, SL, <- F2; exact Ln1).
  destruct (p_remove_quiet w7 n i (proj1 S7) Ln7) as (w8 & E8 & F8 & S8).
  destruct (unlink_spec (wfs w7) n) as (UI & UN & UO).
  exists w8, j. split; [exact E8|].
  split; [eapply same_env_trans; [eapply same_env_trans; [eapply same_env_trans|]|]; eassumption|].
  assert (I8 : forall k, inode (wfs w8) k = inode (set_gz f1 j 1%N (content (wfs w) i)) k).
  { intros k. unfold inode. rewrite F8, UI, F7. reflexivity. }
  split; [rewrite F8; apply wf_unlink; rewrite F7; apply wf_set_gz; exact W1|].
  split; [rewrite F8; exact UN|].
  split; [rewrite F8, UO, F7, SL by assumption; exact Lg1|].
  split.
  { rewrite I8, SI. f_equal. unfold file_of.
    destruct (lookup (wfs w) (gz_name n)) as [k|] eqn:Eg.
    - specialize (Jold k eq_refl). subst k. unfold open_trunc in EOT. rewrite Eg in EOT. injection EOT as <-.
      unfold inode at 1. cbn [inodes]. rewrite nth_upd, Nat.eqb_refl by (apply (wf_bound _ W _ _ Eg)). reflexivity.
    - specialize (Jnew eq_refl). unfold open_trunc in EOT. rewrite Eg in EOT. unfold create_file in EOT. injection EOT as <- _.
      unfold inode. cbn [inodes]. rewrite Jnew, inode_app_new. reflexivity. }
  split; [exact Jold|]. split; [exact Jnew|].
  assert (Others : forall m, m <> n -> m <> gz_name n -> lookup (wfs w8) m = lookup (wfs w) m).
  { intros m H1 H2. rewrite F8, UO, F7, SL by assumption. apply Lo1. assumption. }
  assert (Ino : forall k, k < length (inodes (wfs w)) -> k <> j -> inode (wfs w8) k = inode (wfs w) k).
  { intros k H1 H2. rewrite I8, SO by assumption. apply Io1; assumption. }
  split; [|exact Ino].
  intros m H1 H2. split; [apply Others; assumption|]. unfold file_of. rewrite Others by assumption.
  destruct (lookup (wfs w) m) as [k|] eqn:Em; [|reflexivity]. f_equal. apply Ino; [apply (wf_bound _ W _ _ Em)|].
  intros ->. destruct (lookup (wfs w) (gz_name n)) as [k'|] eqn:Eg.
  - specialize (Jold k' eq_refl). subst k'. apply H2. apply (wf_inj _ W _ _ j); assumption.
  - specialize (Jnew eq_refl). apply (wf_bound _ W) in Em. lia.
Qed.
Print Assumptions compress_file_quiet.

(* on a directory of the archive name nothing happens *)
Lemma compress_file_directory w n fl : quiet w -> file_of (wfs w) (gz_name n) = Some fl -> fdir fl = true ->
  compress_file w n = (false, w).
Proof. intros Q F D. unfold compress_file. rewrite (tick_quiet w Q). cbv beta iota zeta. rewrite F, D. reflexivity. Qed.

Lemma nth_error_skipn_add {A} (l : list A) a k : nth_error (skipn a l) k = nth_error l (a + k).
Proof. revert l; induction a as [|a IH]; intros [|y l]; cbn [skipn Nat.add nth_error]; auto. destruct k; reflexivity. Qed.
Lemma In_firstn_nth {A} (l : list A) c x : In x (firstn c l) -> exists k, k < c /\ nth_error l k = Some x.
Proof.
  revert c; induction l as [|y l IH]; intros [|c] H; cbn [firstn In] in H; try contradiction.
  destruct H as [->|H]; [exists 0; split; [lia | reflexivity]|].
  destruct (IH c H) as (k & Hk & E). exists (S k). split; [lia | exact E].
Qed.
Lemma nth_In_firstn {A} (l : list A) c k x : nth_error l k = Some x -> k < c -> In x (firstn c l).
Proof.
  revert c k; induction l as [|y l IH]; intros c k H Hk; [destruct k; discriminate|].
  destruct c as [|c]; [lia|]. destruct k as [|k]; cbn [nth_error] in H; cbn [firstn].
  - injection H as ->. left; reflexivity.
  - right. apply (IH c k H). lia.
Qed.
Lemma In_skipn_nth {A} (l : list A) c x : In x (skipn c l) -> exists k, c <= k /\ nth_error l k = Some x.
Proof.
  intros H. apply In_nth_error in H. destruct H as [k H]. rewrite nth_error_skipn_add in H.
  exists (c + k). split; [lia | exact H].
Qed.
Lemma nth_In_skipn {A} (l : list A) c k x : nth_error l k = Some x -> c <= k -> In x (skipn c l).
Proof.
  intros H Hk. apply (nth_error_In _ (k - c)). rewrite nth_error_skipn_add. replace (c + (k - c)) with k by lia. exact H.
Qed.
Lemma In_zone_nth {A} (l : list A) a c x : In x (firstn c (skipn a l)) -> exists k, a <= k < a + c /\ nth_error l k = Some x.
Proof.
  intros H. apply In_firstn_nth in H. destruct H as (k & Hk & E). rewrite nth_error_skipn_add in E.
  exists (a + k). split; [lia | exact E].
Qed.
Lemma nth_In_zone {A} (l : list A) a c k x : nth_error l k = Some x -> a <= k < a + c -> In x (firstn c (skipn a l)).
Proof.
  intros H Hk. apply (nth_In_firstn _ c (k - a)); [|lia]. rewrite nth_error_skipn_add.
  replace (a + (k - a)) with k by lia. exact H.
Qed.
Lemma skipn_skipn' {A} (l : list A) a b : skipn a (skipn b l) = skipn (b + a) l.
Proof. revert l; induction b as [|b IH]; intros [|y l]; cbn [skipn Nat.add]; auto. destruct a; reflexivity. Qed.

Lemma filter_length_le' {A} (p : A -> bool) l : length (filter p l) <= length l.
Proof. induction l as [|y l IH]; cbn [filter length]; [lia|]. destruct (p y); cbn [length]; lia. Qed.
Lemma filter_filter' {A} (p q : A -> bool) l : filter p (filter q l) = filter (fun x => q x && p x) l.
Proof. induction l as [|y l IH]; cbn [filter]; [reflexivity|]. destruct (q y); cbn [filter andb]; [destruct (p y)|]; rewrite IH; reflexivity. Qed.

(* ------------------------------------------------------------------ 2. cleanup_loop *)
(* what the loop does with the entry n at position idx of the listing *)
Inductive action := AKeep | ACompress | ARemove.
Definition act (ll total idx : nat) (n : bytes) : action :=
  if Nat.leb total idx then ARemove
  else if Nat.leb ll idx then (if ext_is n gz_sfx then AKeep else ACompress)
  else AKeep.

Lemma act_remove ll total idx n : act ll total idx n = ARemove <-> total <= idx.
Proof. unfold act. destruct (Nat.leb_spec total idx), (Nat.leb_spec ll idx), (ext_is n gz_sfx); intuition (try discriminate; try lia). Qed.
Lemma act_compress ll total idx n : act ll total idx n = ACompress <-> ll <= idx < total /\ ext_is n gz_sfx = false.
Proof. unfold act. destruct (Nat.leb_spec total idx), (Nat.leb_spec ll idx), (ext_is n gz_sfx); intuition (try discriminate; try lia). Qed.
Lemma act_keep ll total idx n : act ll total idx n = AKeep <-> idx < total /\ (idx < ll \/ ext_is n gz_sfx = true).
Proof. unfold act. destruct (Nat.leb_spec total idx), (Nat.leb_spec ll idx), (ext_is n gz_sfx); intuition (try discriminate; try lia). Qed.

Definition outcome (a : action) (f f' : fs) (n : bytes) : Prop :=
  match a with
  | AKeep => same_at f f' n
  | ACompress => archived f f' n
  | ARemove => lookup f' n = None
  end.

Definition keep_part (ll : nat) (files : list bytes) : list bytes := firstn ll files.
Definition zone_part (ll total : nat) (files : list bytes) : list bytes := firstn (total - ll) (skipn ll files).
Definition gone_part (total : nat) (files : list bytes) : list bytes := skipn total files.
Definition not_gz (n : bytes) : bool := negb (ext_is n gz_sfx).

Lemma parts_split ll total files : ll <= total ->
  files = keep_part ll files ++ zone_part ll total files ++ gone_part total files
  /\ firstn total files = keep_part ll files ++ zone_part ll total files.
Proof.
  intros H. unfold keep_part, zone_part, gone_part.
  assert (E : skipn total files = skipn (total - ll) (skipn ll files)).
  { rewrite skipn_skipn'. f_equal. lia. }
  split.
  - rewrite E, firstn_skipn, firstn_skipn. reflexivity.
  - replace total with (ll + (total - ll)) at 1 by lia. generalize (total - ll) as c. clear.
    revert files; induction ll as [|ll IH]; intros files c; [reflexivity|].
    destruct files as [|y files]; cbn [Nat.add firstn skipn app]; [destruct c; reflexivity|]. f_equal. apply IH.
Qed.
Lemma parts_in ll total files : ll <= total ->
  (forall n, In n (keep_part ll files) -> In n files) /\ (forall n, In n (zone_part ll total files) -> In n files)
  /\ (forall n, In n (gone_part total files) -> In n files).
Proof.
  intros H. destruct (parts_split ll total files H) as [Split _].
  repeat split; intros n Hn; rewrite Split, !in_app_iff; auto.
Qed.

Definition without (red files : list bytes) : list bytes := filter (fun m => negb (existsb (beq m) red)) files.

Lemma in_without red files m : In m (without red files) <-> In m files /\ ~ In m red.
Proof.
  unfold without. rewrite filter_In. split; intros [H1 H2]; (split; [exact H1|]).
  - intros Hin. apply negb_true_iff in H2. apply not_true_iff_false in H2. apply H2. apply existsb_exists.
    exists m. split; [exact Hin | apply beq_refl].
  - apply negb_true_iff. apply not_true_iff_false. intros H. apply existsb_exists in H. destruct H as (x & Hx & Hb).
    apply beq_eq in Hb. subst x. apply H2. exact Hx.
Qed.

(* every name of red must exist (a missing one makes remove_file fail, and the cleanup with it) and be named once *)
Theorem remove_redundant_spec : forall red w files,
  quiet w -> fs_wf (wfs w) -> NoDup red -> (forall n, In n red -> lookup (wfs w) n <> None) ->
  exists w', remove_redundant w red files = (true, w', without red files)
    /\ same_env w w' /\ fs_wf (wfs w')
    /\ (forall n, In n red -> lookup (wfs w') n = None)
    /\ (forall m, ~ In m red -> same_at (wfs w) (wfs w') m).
Proof.
  induction red as [|n r IH]; intros w files Q W ND Hex.
  - exists w. cbn [remove_redundant]. unfold without. cbn [existsb negb]. rewrite filter_all_true by reflexivity.
    split; [reflexivity|]. split; [apply same_env_refl; exact Q|]. split; [exact W|]. split; [intros n []|].
    intros m _. apply same_at_refl.
  - inversion ND as [|n' r' Hnr Hr]; subst n' r'.
    destruct (lookup (wfs w) n) as [i|] eqn:En; [|exfalso; apply (Hex n); [left; reflexivity | exact En]].
    destruct (p_remove_quiet w n i Q En) as (w1 & E1 & F1 & S1). destruct (unlink_spec (wfs w) n) as (UI & UN & UO).
    assert (Fr1 : forall m, m <> n -> same_at (wfs w) (wfs w1) m).
    { intros m H1. split; [rewrite F1; apply UO; exact H1|].
      unfold file_of. rewrite F1, UO by assumption. destruct (lookup (wfs w) m); reflexivity. }
    destruct (IH w1 (filter (fun m => negb (beq m n)) files) (proj1 S1)) as (w' & E' & S' & W' & R' & Fr').
    { rewrite F1. apply wf_unlink. exact W. } { exact Hr. }
    { intros m Hm. rewrite (proj1 (Fr1 m (fun H => Hnr (eq_ind m (fun x => In x r) Hm n H)))). apply Hex. right; exact Hm. }
    exists w'. cbn [remove_redundant]. rewrite E1, E'. split.
    { f_equal. unfold without. rewrite filter_filter'. apply filter_ext_in. intros m _. cbn [existsb]. rewrite negb_orb. reflexivity. }
    split; [eapply same_env_trans; eassumption|]. split; [exact W'|]. split.
    + intros m [<-|Hm]; [|apply R'; exact Hm]. rewrite (proj1 (Fr' n Hnr)), F1. exact UN.
    + intros m Hm. apply (same_at_trans _ (wfs w1)).
      * apply Fr1. intros ->. apply Hm. left; reflexivity.
      * apply Fr'. intros Hin. apply Hm. right; exact Hin.
Qed.
Print Assumptions remove_redundant_spec.

(* After the redundant archives have been taken out of the listing, no listed name has its archive name listed too:
   the hypothesis of the loop theorems holds (the empty file name aside, whose archive name ".gz" has no extension). *)
Lemma no_clash_without_redundant files n : ~ In [] files ->
  In n (without (redundant_gz files) files) -> ~ In (gz_name n) (without (redundant_gz files) files).
Proof.
  intros Hne Hn Hg. apply in_without in Hn, Hg. destruct Hn as [Hn _], Hg as [Hg Hr]. apply Hr.
  assert (n <> []) by (intros ->; apply Hne; exact Hn).
  unfold redundant_gz. apply filter_In. split; [exact Hg|].
  rewrite ext_is_gz_name, strip_gz_name by assumption. cbn [andb]. apply existsb_exists.
  exists n. split; [exact Hn | apply beq_refl].
Qed.

(* The loop skips the entry equal to cur, the current output file (o_current): it stays as it is, at whatever position
   the listing has it, and its position still counts; every other entry is treated by its position.  `skip` is that
   test; for cur = None it is constantly false and the statements below are about `act` alone. *)
Section Skip.
Variables (cur : option bytes) (skip : bytes -> bool).
Hypothesis skip_cur : forall n, skip n = match cur with Some p => beq p n | None => false end.

Definition act_skip (ll total idx : nat) (n : bytes) : action := if skip n then AKeep else act ll total idx n.

Lemma act_skip_remove ll total idx n : act_skip ll total idx n = ARemove <-> skip n = false /\ total <= idx.
Proof. unfold act_skip. destruct (skip n); rewrite ?act_remove; intuition discriminate. Qed.
Lemma act_skip_compress ll total idx n :
  act_skip ll total idx n = ACompress <-> skip n = false /\ ll <= idx < total /\ ext_is n gz_sfx = false.
Proof. unfold act_skip. destruct (skip n); rewrite ?act_compress; intuition discriminate. Qed.
Lemma act_skip_keep ll total idx n :
  act_skip ll total idx n = AKeep <-> skip n = true \/ (idx < total /\ (idx < ll \/ ext_is n gz_sfx = true)).
Proof. unfold act_skip. destruct (skip n); rewrite ?act_keep; intuition discriminate. Qed.

Lemma cleanup_loop_cons_skip w n r idx ll total :
  cleanup_loop w (n :: r) idx ll total cur =
  match act_skip ll total idx n with
  | ARemove => let '(ok, w1) := p_remove w n in if ok then cleanup_loop w1 r (S idx) ll total cur else (false, w1)
  | ACompress => let '(ok, w1) := compress_file w n in if ok then cleanup_loop w1 r (S idx) ll total cur else (false, w1)
  | AKeep => cleanup_loop w r (S idx) ll total cur
  end.
Proof.
  unfold act_skip. rewrite skip_cur. cbn [cleanup_loop].
  destruct (match cur with Some p => beq p n | None => false end); [reflexivity|].
  unfold act, ext_is. destruct (Nat.leb total idx); [reflexivity|].
  destruct (Nat.leb ll idx); [|reflexivity]. destruct (extension n) as [e|]; [|reflexivity].
  destruct (beq e gz_sfx); reflexivity.
Qed.

Lemma cleanup_step w n r idx ll total :
  quiet w -> fs_wf (wfs w) -> (act_skip ll total idx n <> AKeep -> lookup (wfs w) n <> None) ->
  (act_skip ll total idx n = ACompress -> not_dir (wfs w) (gz_name n)) ->
  exists w1, cleanup_loop w (n :: r) idx ll total cur = cleanup_loop w1 r (S idx) ll total cur
    /\ same_env w w1 /\ fs_wf (wfs w1)
    /\ outcome (act_skip ll total idx n) (wfs w) (wfs w1) n
    /\ (forall m, m <> n -> (act_skip ll total idx n = ACompress -> m <> gz_name n) -> same_at (wfs w) (wfs w1) m).
Proof.
  intros Q W Hex Hnd. rewrite cleanup_loop_cons_skip. destruct (act_skip ll total idx n) eqn:EA; cbn [outcome].
  - exists w. split; [reflexivity|]. split; [apply same_env_refl; exact Q|]. split; [exact W|].
    split; [apply same_at_refl|]. intros m _ _. apply same_at_refl.
  - destruct (lookup (wfs w) n) as [i|] eqn:En; [|exfalso; apply Hex; [discriminate | reflexivity]].
    destruct (compress_file_quiet w n i Q W En (Hnd eq_refl)) as (w1 & j & E & S1 & W1 & Ln & Lg & Ij & _ & _ & Fr & _).
    exists w1. rewrite E. split; [reflexivity|]. split; [exact S1|]. split; [exact W1|]. split.
    + exists i, j. rewrite Ij. cbn [fdata fgz fdir]. repeat split; auto.
    + intros m H1 H2. apply Fr; auto.
  - destruct (lookup (wfs w) n) as [i|] eqn:En; [|exfalso; apply Hex; [discriminate | reflexivity]].
    destruct (p_remove_quiet w n i Q En) as (w1 & E & F1 & S1). destruct (unlink_spec (wfs w) n) as (UI & UN & UO).
    exists w1. rewrite E. split; [reflexivity|]. split; [exact S1|]. split; [rewrite F1; apply wf_unlink; exact W|].
    split; [rewrite F1; exact UN|].
    intros m H1 _. split; [rewrite F1; apply UO; exact H1|].
    unfold file_of. rewrite F1, UO by assumption. destruct (lookup (wfs w) m); reflexivity.
Qed.

(* The loop, described by the action at every position.  Hypotheses:
   - the listed names are pairwise different;
   - a name that is to be removed or compressed exists;
   - the archive name of an entry that is to be compressed is not itself listed (otherwise the compression
     overwrites another entry, or a later step removes the fresh archive), and is not a directory.
   Nothing is asked of the entry equal to cur. *)
Theorem cleanup_loop_act ll total : forall files w idx,
  quiet w -> fs_wf (wfs w) -> NoDup files ->
  (forall k n, nth_error files k = Some n -> act_skip ll total (idx + k) n <> AKeep -> lookup (wfs w) n <> None) ->
  (forall k n, nth_error files k = Some n -> act_skip ll total (idx + k) n = ACompress -> ~ In (gz_name n) files) ->
  (forall k n, nth_error files k = Some n -> act_skip ll total (idx + k) n = ACompress -> not_dir (wfs w) (gz_name n)) ->
  exists w', cleanup_loop w files idx ll total cur = (true, w') /\ same_env w w' /\ fs_wf (wfs w')
    /\ (forall k n, nth_error files k = Some n -> outcome (act_skip ll total (idx + k) n) (wfs w) (wfs w') n)
    /\ (forall m, ~ In m files ->
          (forall k n, nth_error files k = Some n -> act_skip ll total (idx + k) n = ACompress -> m <> gz_name n) ->
          same_at (wfs w) (wfs w') m).
Proof.
  induction files as [|n r IH]; intros w idx Q W ND Hex Hcl Hnd.
  - exists w. split; [reflexivity|]. split; [apply same_env_refl; exact Q|]. split; [exact W|]. split.
    + intros [|k] n H; discriminate.
    + intros m _ _. apply same_at_refl.
  - inversion ND as [|n' r' Hnr Hr]; subst n' r'.
    assert (A0 : act_skip ll total (idx + 0) n = act_skip ll total idx n) by (rewrite Nat.add_0_r; reflexivity).
    assert (AS : forall k m, act_skip ll total (idx + S k) m = act_skip ll total (S idx + k) m)
      by (intros k m; rewrite Nat.add_succ_r; reflexivity).
    destruct (cleanup_step w n r idx ll total Q W) as (w1 & E1 & S1 & W1 & O1 & Fr1).
    { rewrite <- A0. apply (Hex 0 n eq_refl). }
    { rewrite <- A0. apply (Hnd 0 n eq_refl). }
    assert (Tail : forall k m, nth_error r k = Some m -> same_at (wfs w) (wfs w1) m).
    { intros k m Hk. apply Fr1.
      - intros ->. apply Hnr. eapply nth_error_In; exact Hk.
      - intros EA ->. apply (Hcl 0 n eq_refl); [rewrite A0; exact EA|]. right. eapply nth_error_In; exact Hk. }
    destruct (IH w1 (S idx) (proj1 S1) W1 Hr) as (w' & E' & S' & W' & O' & Fr').
    { intros k m Hk Ha. rewrite (proj1 (Tail k m Hk)). apply (Hex (S k) m Hk). rewrite AS. exact Ha. }
    { intros k m Hk Ha Hin. apply (Hcl (S k) m Hk); [rewrite AS; exact Ha | right; exact Hin]. }
    { intros k m Hk Ha. rewrite <- AS in Ha. apply (not_dir_same_at (wfs w)); [|apply (Hnd (S k) m Hk Ha)].
      apply Fr1.
      - intros Hg. apply (Hcl (S k) m Hk Ha). left. symmetry. exact Hg.
      - intros _ Hg. apply gz_name_inj in Hg. subst m. apply Hnr. eapply nth_error_In; exact Hk. }
    exists w'. rewrite E1. split; [exact E'|]. split; [eapply same_env_trans; eassumption|]. split; [exact W'|].
    split.
    + intros [|k] m Hk.
      * cbn [nth_error] in Hk. injection Hk as <-. rewrite A0.
        assert (Tn : same_at (wfs w1) (wfs w') n).
        { apply Fr'; [exact Hnr|]. intros k' n' Hk' Ha' ->. apply (Hcl (S k') n' Hk'); [rewrite AS; exact Ha' | left; reflexivity]. }
        destruct (act_skip ll total idx n) eqn:EA; cbn [outcome] in *.
        -- eapply same_at_trans; eassumption.
        -- apply (archived_after _ _ _ _ O1 Tn). apply Fr'.
           ++ intros Hin. apply (Hcl 0 n eq_refl); [exact A0 | right; exact Hin].
           ++ intros k' n' Hk' _ Hg. apply gz_name_inj in Hg. subst n'. apply Hnr. eapply nth_error_In; exact Hk'.
        -- rewrite (proj1 Tn). exact O1.
      * cbn [nth_error] in Hk. specialize (O' k m Hk). rewrite AS. pose proof (Tail k m Hk) as Sm.
        destruct (act_skip ll total (S idx + k) m); cbn [outcome] in *.
        -- eapply same_at_trans; eassumption.
        -- eapply archived_before; eassumption.
        -- exact O'.
    + intros m Hm Hc.
      assert (Hmn : m <> n) by (intros ->; apply Hm; left; reflexivity).
      assert (Hmr : ~ In m r) by (intros Hin; apply Hm; right; exact Hin).
      apply (same_at_trans _ (wfs w1)).
      * apply Fr1; [exact Hmn|]. intros EA. apply (Hc 0 n eq_refl). rewrite A0. exact EA.
      * apply Fr'; [exact Hmr|]. intros k n' Hk Ha. apply (Hc (S k) n' Hk). rewrite AS. exact Ha.
Qed.

(* the same by positions (the listing is newest first: position 0 is the newest file) *)
Theorem cleanup_loop_spec_skip w files index ll total :
  quiet w -> fs_wf (wfs w) -> NoDup files ->
  (forall k n, nth_error files k = Some n -> skip n = false ->
               total <= index + k \/ (ll <= index + k /\ ext_is n gz_sfx = false) -> lookup (wfs w) n <> None) ->
  (forall k n, nth_error files k = Some n -> skip n = false -> ll <= index + k < total -> ext_is n gz_sfx = false ->
               ~ In (gz_name n) files) ->
  (forall k n, nth_error files k = Some n -> skip n = false -> ll <= index + k < total -> ext_is n gz_sfx = false ->
               not_dir (wfs w) (gz_name n)) ->
  exists w', cleanup_loop w files index ll total cur = (true, w') /\ same_env w w' /\ fs_wf (wfs w')
    /\ (forall k n, nth_error files k = Some n ->
          (* the current output file: untouched, wherever it is listed *)
          (skip n = true -> same_at (wfs w) (wfs w') n)
          (* from total on: removed *)
          /\ (skip n = false -> total <= index + k -> lookup (wfs w') n = None)
          (* before log_limit, or already an archive: untouched *)
          /\ (index + k < total -> index + k < ll \/ ext_is n gz_sfx = true -> same_at (wfs w) (wfs w') n)
          (* in between: compressed *)
          /\ (skip n = false -> ll <= index + k < total -> ext_is n gz_sfx = false -> archived (wfs w) (wfs w') n))
    /\ (forall m, ~ In m files ->
          (forall k n, nth_error files k = Some n -> skip n = false -> ll <= index + k < total ->
                       ext_is n gz_sfx = false -> m <> gz_name n) ->
          same_at (wfs w) (wfs w') m).
Proof.
  intros Q W ND Hex Hcl Hnd.
  destruct (cleanup_loop_act ll total files w index Q W ND) as (w' & E & S & W' & O & Fr).
  - intros k n Hk Ha. destruct (act_skip ll total (index + k) n) eqn:EA; [congruence| |].
    + apply act_skip_compress in EA. destruct EA as (C & R & X). apply (Hex k n Hk C). right. split; [lia | exact X].
    + apply act_skip_remove in EA. destruct EA as (C & R). apply (Hex k n Hk C). left. exact R.
  - intros k n Hk Ha. apply act_skip_compress in Ha. destruct Ha as (C & R & X). apply (Hcl k n Hk C R X).
  - intros k n Hk Ha. apply act_skip_compress in Ha. destruct Ha as (C & R & X). apply (Hnd k n Hk C R X).
  - exists w'. split; [exact E|]. split; [exact S|]. split; [exact W'|]. split.
    + intros k n Hk. specialize (O k n Hk). split; [|split; [|split]].
      * intros H. rewrite (proj2 (act_skip_keep ll total (index + k) n) (or_introl H)) in O. exact O.
      * intros C H. rewrite (proj2 (act_skip_remove ll total (index + k) n) (conj C H)) in O. exact O.
      * intros H1 H2. rewrite (proj2 (act_skip_keep ll total (index + k) n) (or_intror (conj H1 H2))) in O. exact O.
      * intros C H1 H2. rewrite (proj2 (act_skip_compress ll total (index + k) n) (conj C (conj H1 H2))) in O. exact O.
    + intros m Hm Hc. apply Fr; [exact Hm|]. intros k n Hk Ha. apply act_skip_compress in Ha. destruct Ha as (C & R & X).
      apply (Hc k n Hk C R X).
Qed.

(* The whole loop, started at position 0 with log_limit <= total (cleanup_impl: total = log_limit + compress limit):
   the first log_limit entries stay as they are, the next total - log_limit entries stay as archives (those that are
   not archives yet are compressed: content preserved, original gone), the rest is deleted - EXCEPT the current output
   file, which stays as it is wherever it is listed. *)
Theorem cleanup_loop_kept_skip w files ll total :
  quiet w -> fs_wf (wfs w) -> NoDup files -> ll <= total ->
  (forall n, In n (zone_part ll total files) -> skip n = false -> ext_is n gz_sfx = false -> lookup (wfs w) n <> None) ->
  (forall n, In n (gone_part total files) -> skip n = false -> lookup (wfs w) n <> None) ->
  (forall n, In n (zone_part ll total files) -> skip n = false -> ext_is n gz_sfx = false -> ~ In (gz_name n) files) ->
  (forall n, In n (zone_part ll total files) -> skip n = false -> ext_is n gz_sfx = false -> not_dir (wfs w) (gz_name n)) ->
  exists w', cleanup_loop w files 0 ll total cur = (true, w') /\ same_env w w' /\ fs_wf (wfs w')
    /\ length (keep_part ll files) <= ll /\ length (zone_part ll total files) <= total - ll
    /\ (forall n, In n (keep_part ll files) -> same_at (wfs w) (wfs w') n)
    /\ (forall n, In n (zone_part ll total files) ->
          if ext_is n gz_sfx || skip n then same_at (wfs w) (wfs w') n else archived (wfs w) (wfs w') n)
    /\ (forall n, In n (gone_part total files) ->
          if skip n then same_at (wfs w) (wfs w') n else lookup (wfs w') n = None)
    /\ (forall n, In n files -> skip n = true -> same_at (wfs w) (wfs w') n)
    /\ (forall m, ~ In m files ->
          ~ In m (map gz_name (filter (fun n => not_gz n && negb (skip n)) (zone_part ll total files))) ->
          same_at (wfs w) (wfs w') m).
Proof.
  intros Q W ND Hle HexZ HexG Hcl Hnd.
  assert (Zone : forall k n, nth_error files k = Some n -> ll <= k < total -> In n (zone_part ll total files)).
  { intros k n Hk H. apply (nth_In_zone _ _ _ k); [exact Hk | lia]. }
  destruct (cleanup_loop_spec_skip w files 0 ll total Q W ND) as (w' & E & S & W' & O & Fr).
  - intros k n Hk C. cbn [Nat.add]. intros [H|[H1 H2]].
    + apply HexG; [|exact C]. apply (nth_In_skipn _ _ k); assumption.
    + destruct (Nat.lt_ge_cases k total) as [Hlt|Hge].
      * apply HexZ; [apply (Zone k n Hk); lia | exact C | exact H2].
      * apply HexG; [|exact C]. apply (nth_In_skipn _ _ k); assumption.
  - intros k n Hk C. cbn [Nat.add]. intros H1 H2. apply Hcl; [apply (Zone k n Hk H1) | exact C | exact H2].
  - intros k n Hk C. cbn [Nat.add]. intros H1 H2. apply Hnd; [apply (Zone k n Hk H1) | exact C | exact H2].
  - exists w'. split; [exact E|]. split; [exact S|]. split; [exact W'|].
    split; [apply firstn_le_length|]. split; [apply firstn_le_length|].
    split; [|split; [|split; [|split]]].
    + intros n Hn. apply In_firstn_nth in Hn. destruct Hn as (k & Hk & En).
      destruct (O k n En) as (_ & _ & K & _). cbn [Nat.add] in K. apply K; [lia | left; exact Hk].
    + intros n Hn. apply In_zone_nth in Hn. destruct Hn as (k & Hk & En).
      destruct (O k n En) as (Cu & _ & K & C). cbn [Nat.add] in K, C.
      destruct (skip n) eqn:B; [rewrite orb_true_r; apply Cu; reflexivity|]. rewrite orb_false_r.
      destruct (ext_is n gz_sfx) eqn:G; [apply K; [lia | right; reflexivity] | apply C; [reflexivity | lia | reflexivity]].
    + intros n Hn. apply In_skipn_nth in Hn. destruct Hn as (k & Hk & En).
      destruct (O k n En) as (Cu & R & _ & _).
      destruct (skip n) eqn:B; [apply Cu; reflexivity | apply R; [reflexivity | exact Hk]].
    + intros n Hn B. apply In_nth_error in Hn. destruct Hn as [k En]. destruct (O k n En) as (Cu & _). apply Cu. exact B.
    + intros m Hm Hz. apply Fr; [exact Hm|]. intros k n Hk C H1 H2 ->. apply Hz. apply in_map. apply filter_In.
      split; [apply (Zone k n Hk H1) | unfold not_gz; rewrite H2, C; reflexivity].
Qed.

(* remove_redundant followed by the loop, as in cleanup_impl: the hypotheses are about the listing only (pairwise
   different existing names, none empty, no archive name of a listed name is a directory).  The current output file is
   protected in the loop only: were it an archive whose original is listed too, it would be removed before the loop. *)
Theorem cleanup_after_listing_skip w files ll total :
  quiet w -> fs_wf (wfs w) -> NoDup files -> ~ In [] files -> ll <= total ->
  (forall n, In n files -> lookup (wfs w) n <> None) ->
  (forall n, In n files -> not_dir (wfs w) (gz_name n)) ->
  let red := redundant_gz files in
  let files' := without red files in
  exists w1 w', remove_redundant w red files = (true, w1, files')
    /\ cleanup_loop w1 files' 0 ll total cur = (true, w') /\ same_env w w' /\ fs_wf (wfs w')
    /\ (forall n, In n red -> ~ In n (map gz_name (filter (fun n => not_gz n && negb (skip n)) (zone_part ll total files'))) ->
          lookup (wfs w') n = None)
    /\ (forall n, In n (keep_part ll files') -> same_at (wfs w) (wfs w') n)
    /\ (forall n, In n (zone_part ll total files') ->
          if ext_is n gz_sfx || skip n then same_at (wfs w) (wfs w') n else archived (wfs w) (wfs w') n)
    /\ (forall n, In n (gone_part total files') ->
          if skip n then same_at (wfs w) (wfs w') n else lookup (wfs w') n = None)
    /\ length (keep_part ll files') <= ll /\ length (zone_part ll total files') <= total - ll
    /\ (forall m, ~ In m files ->
          ~ In m (map gz_name (filter (fun n => not_gz n && negb (skip n)) (zone_part ll total files'))) ->
          same_at (wfs w) (wfs w') m)
    /\ (forall p, cur = Some p -> In p files' -> same_at (wfs w) (wfs w') p).
Proof.
  intros Q W ND Hne Hle Hex Hnd red files'.
  assert (Rin : forall n, In n red -> In n files) by (intros n H; apply filter_In in H; apply H).
  destruct (remove_redundant_spec red w files Q W) as (w1 & E1 & S1 & W1 & R1 & Fr1).
  { apply NoDup_filter. exact ND. } { intros n H. apply Hex, Rin, H. }
  fold files' in E1.
  assert (In' : forall n, In n files' -> In n files /\ ~ In n red) by (intros n H; apply in_without; exact H).
  destruct (parts_in ll total files' Hle) as (InK & InZ & InG).
  assert (Ex1 : forall n, In n files' -> lookup (wfs w1) n <> None).
  { intros n H. destruct (In' n H) as [H1 H2]. rewrite (proj1 (Fr1 n H2)). apply Hex. exact H1. }
  destruct (cleanup_loop_kept_skip w1 files' ll total (proj1 S1) W1) as (w' & E' & S' & W' & LK & LZ & K & Z & G & Cu & Fr').
  { apply NoDup_filter. exact ND. } { exact Hle. }
  { intros n H _ _. apply Ex1, InZ, H. } { intros n H _. apply Ex1, InG, H. }
  { intros n H _ _. apply no_clash_without_redundant; [exact Hne | apply InZ; exact H]. }
  { intros n H _ _. destruct (in_dec (list_eq_dec N.eq_dec) (gz_name n) red) as [Hr|Hr].
    - apply not_dir_missing. apply R1. exact Hr.
    - apply (not_dir_same_at (wfs w)); [apply Fr1; exact Hr | apply Hnd, (In' n (InZ n H))]. }
  exists w1, w'. split; [exact E1|]. split; [exact E'|]. split; [eapply same_env_trans; eassumption|]. split; [exact W'|].
  assert (RG : forall n, In n red -> ~ In n files') by (intros n H H'; apply (In' n H'); exact H).
  assert (Same1 : forall n, In n files' -> same_at (wfs w) (wfs w1) n) by (intros n H; apply Fr1, (In' n H)).
  split; [intros n Hn Hz; rewrite <- (R1 n Hn); apply Fr'; [apply RG; exact Hn | exact Hz]|].
  split; [intros n Hn; apply (same_at_trans _ (wfs w1)); [apply Same1, InK, Hn | apply K, Hn]|].
  split.
  { intros n Hn. specialize (Z n Hn). pose proof (Same1 n (InZ n Hn)) as S0. destruct (ext_is n gz_sfx || skip n).
    - eapply same_at_trans; eassumption.
    - eapply archived_before; eassumption. }
  split.
  { intros n Hn. specialize (G n Hn). pose proof (Same1 n (InG n Hn)) as S0. destruct (skip n); [|exact G].
    eapply same_at_trans; eassumption. }
  split; [exact LK|]. split; [exact LZ|].
  split.
  { intros m Hm Hz. apply (same_at_trans _ (wfs w1)).
    - apply Fr1. intros H. apply Hm, Rin, H.
    - apply Fr'; [|exact Hz]. intros H. apply Hm, (In' m H). }
  intros p -> Hp. apply (same_at_trans _ (wfs w1)); [apply Same1; exact Hp|]. apply Cu; [exact Hp|].
  rewrite skip_cur. apply beq_refl.
Qed.
End Skip.
Print Assumptions cleanup_loop_act.

(* ------------------------------------------------------------------ 3. cur = None: no entry is skipped *)
Lemma cleanup_loop_cons w n r idx ll total :
  cleanup_loop w (n :: r) idx ll total None =
  match act ll total idx n with
  | ARemove => let '(ok, w1) := p_remove w n in if ok then cleanup_loop w1 r (S idx) ll total None else (false, w1)
  | ACompress => let '(ok, w1) := compress_file w n in if ok then cleanup_loop w1 r (S idx) ll total None else (false, w1)
  | AKeep => cleanup_loop w r (S idx) ll total None
  end.
Proof. exact (cleanup_loop_cons_skip None (fun _ => false) (fun _ => eq_refl) w n r idx ll total). Qed.

Theorem cleanup_loop_spec w files index ll total :
  quiet w -> fs_wf (wfs w) -> NoDup files ->
  (forall k n, nth_error files k = Some n ->
               total <= index + k \/ (ll <= index + k /\ ext_is n gz_sfx = false) -> lookup (wfs w) n <> None) ->
  (forall k n, nth_error files k = Some n -> ll <= index + k < total -> ext_is n gz_sfx = false ->
               ~ In (gz_name n) files) ->
  (forall k n, nth_error files k = Some n -> ll <= index + k < total -> ext_is n gz_sfx = false ->
               not_dir (wfs w) (gz_name n)) ->
  exists w', cleanup_loop w files index ll total None = (true, w') /\ same_env w w' /\ fs_wf (wfs w')
    /\ (forall k n, nth_error files k = Some n ->
          (* from total on: removed *)
          (total <= index + k -> lookup (wfs w') n = None)
          (* before log_limit, or already an archive: untouched *)
          /\ (index + k < total -> index + k < ll \/ ext_is n gz_sfx = true -> same_at (wfs w) (wfs w') n)
          (* in between: compressed *)
          /\ (ll <= index + k < total -> ext_is n gz_sfx = false -> archived (wfs w) (wfs w') n))
    /\ (forall m, ~ In m files ->
          (forall k n, nth_error files k = Some n -> ll <= index + k < total -> ext_is n gz_sfx = false -> m <> gz_name n) ->
          same_at (wfs w) (wfs w') m).
Proof.
  intros Q W ND Hex Hcl Hnd.
  destruct (cleanup_loop_spec_skip None (fun _ => false) (fun _ => eq_refl) w files index ll total Q W ND)
    as (w' & E & S & W' & O & Fr).
  - intros k n Hk _. apply (Hex k n Hk).
  - intros k n Hk _. apply (Hcl k n Hk).
  - intros k n Hk _. apply (Hnd k n Hk).
  - exists w'. split; [exact E|]. split; [exact S|]. split; [exact W'|]. split.
    + intros k n Hk. destruct (O k n Hk) as (_ & R & K & C). split; [exact (R eq_refl)|]. split; [exact K | exact (C eq_refl)].
    + intros m Hm Hc. apply Fr; [exact Hm|]. intros k n Hk _. apply (Hc k n Hk).
Qed.
Print Assumptions cleanup_loop_spec.

(* the name under which an entry of the middle part survives *)
Definition arch (n : bytes) : bytes := if ext_is n gz_sfx then n else gz_name n.
Definition exists_in (f : fs) (n : bytes) : bool := match lookup f n with Some _ => true | None => false end.

(* In terms of counts.  The family: the listed names and the archives the loop creates.  What is left of it after the
   loop is  survivors = (the first ll entries) ++ (the next total - ll entries, as archives):  at most ll files
   that are not archives, at most total - ll archives from the middle part; nothing else of the family exists. *)
Theorem cleanup_loop_counts w files ll total w' :
  quiet w -> fs_wf (wfs w) -> NoDup files -> ll <= total ->
  (forall n, In n files -> lookup (wfs w) n <> None) ->
  (forall n, In n (zone_part ll total files) -> ext_is n gz_sfx = false -> ~ In (gz_name n) files) ->
  (forall n, In n (zone_part ll total files) -> ext_is n gz_sfx = false -> not_dir (wfs w) (gz_name n)) ->
  cleanup_loop w files 0 ll total None = (true, w') ->
  let keep := keep_part ll files in
  let zone := zone_part ll total files in
  let survivors := keep ++ map arch zone in
  (* the kept entries are the first ones of the listing *)
  firstn total files = keep ++ zone
  (* the survivors exist ... *)
  /\ (forall m, In m survivors -> lookup (wfs w') m <> None)
  (* ... and nothing else of the family *)
  /\ (forall m, In m files \/ In m (map gz_name (filter not_gz zone)) -> lookup (wfs w') m <> None -> In m survivors)
  /\ filter (exists_in (wfs w')) files = keep ++ filter (fun n => ext_is n gz_sfx) zone
  (* the numbers *)
  /\ length keep <= ll /\ length (map arch zone) <= total - ll /\ length survivors <= total
  /\ length (filter (fun n => exists_in (wfs w') n && not_gz n) files) <= ll
  (* a survivor of the middle part holds the content of its entry, and is a complete archive if it is new *)
  /\ (forall n, In n zone -> exists fl fl', file_of (wfs w) n = Some fl /\ file_of (wfs w') (arch n) = Some fl'
                                          /\ fdata fl' = fdata fl /\ (ext_is n gz_sfx = false -> fgz fl' = 1%N /\ fdir fl' = false))
  (* ... and has the extension gz (the empty file name aside) *)
  /\ (~ In [] files -> forall m, In m (map arch zone) -> ext_is m gz_sfx = true).
Proof.
  intros Q W ND Hle Hex Hcl Hnd E keep zone survivors.
  destruct (parts_split ll total files Hle) as [Split First]. fold keep zone in Split, First.
  destruct (parts_in ll total files Hle) as (InK & InZ & InG). fold keep in InK. fold zone in InZ.
  destruct (cleanup_loop_kept_skip None (fun _ => false) (fun _ => eq_refl) w files ll total Q W ND Hle)
    as (w'' & E' & _ & _ & LK & LZ & K & Z0 & G0 & _).
  { intros n H _ _. apply Hex, InZ, H. } { intros n H _. apply Hex, InG, H. }
  { intros n H _. apply Hcl, H. } { intros n H _. apply Hnd, H. }
  rewrite E in E'. injection E' as <-. fold keep in LK, K. fold zone in LZ, Z0.
  assert (Z : forall n, In n zone -> if ext_is n gz_sfx then same_at (wfs w) (wfs w') n else archived (wfs w) (wfs w') n).
  { intros n H. specialize (Z0 n H). rewrite orb_false_r in Z0. exact Z0. }
  assert (G : forall n, In n (gone_part total files) -> lookup (wfs w') n = None) by exact G0.
  assert (ExK : forall n, In n keep -> lookup (wfs w') n <> None).
  { intros n H. rewrite (proj1 (K n H)). apply Hex, InK, H. }
  assert (ExZ : forall n, In n zone -> lookup (wfs w') (arch n) <> None /\ exists_in (wfs w') n = ext_is n gz_sfx).
  { intros n H. specialize (Z n H). unfold arch, exists_in. destruct (ext_is n gz_sfx).
    - rewrite (proj1 Z). pose proof (Hex n (InZ n H)) as X. destruct (lookup (wfs w) n); [split; [discriminate | reflexivity] | congruence].
    - destruct Z as (i & j & _ & Ln & Lg & _). rewrite Lg, Ln. split; [discriminate | reflexivity]. }
  assert (ExG : forall n, In n (gone_part total files) -> exists_in (wfs w') n = false).
  { intros n H. unfold exists_in. rewrite (G n H). reflexivity. }
  assert (ExK' : forall n, In n keep -> exists_in (wfs w') n = true).
  { intros n H. unfold exists_in. pose proof (ExK n H). destruct (lookup (wfs w') n); congruence. }
  split; [exact First|].
  split.
  { intros m Hm. apply in_app_or in Hm. destruct Hm as [Hm|Hm]; [apply ExK; exact Hm|].
    apply in_map_iff in Hm. destruct Hm as (n & <- & Hn). apply ExZ. exact Hn. }
  split.
  { intros m [Hm|Hm] Hl.
    - rewrite Split in Hm. apply in_app_or in Hm. destruct Hm as [Hm|Hm]; [apply in_or_app; left; exact Hm|].
      apply in_app_or in Hm. destruct Hm as [Hm|Hm].
      + apply in_or_app. right. apply in_map_iff. exists m. split; [|exact Hm].
        destruct (ExZ m Hm) as [_ X]. unfold arch, exists_in in *. destruct (ext_is m gz_sfx); [reflexivity|].
        destruct (lookup (wfs w') m); [discriminate | congruence].
      + rewrite (G m Hm) in Hl. congruence.
    - apply in_or_app. right. apply in_map_iff in Hm. destruct Hm as (n & <- & Hn). apply filter_In in Hn. destruct Hn as [Hn G'].
      apply in_map_iff. exists n. split; [|exact Hn]. unfold arch, not_gz in *. destruct (ext_is n gz_sfx); [discriminate | reflexivity]. }
  split.
  { rewrite Split at 1. rewrite !filter_app. rewrite (filter_all_true _ keep ExK'), (filter_all_false _ _ ExG), app_nil_r.
    f_equal. apply filter_ext_in. intros n Hn. apply ExZ. exact Hn. }
  split; [exact LK|]. split; [rewrite map_length; exact LZ|].
  split; [unfold survivors; rewrite app_length, map_length; lia|].
  split.
  { rewrite Split at 1. rewrite !filter_app, !app_length.
    rewrite (filter_all_false _ zone), (filter_all_false _ (gone_part total files)).
    - cbn [length]. pose proof (filter_length_le' (fun n => exists_in (wfs w') n && not_gz n) keep). lia.
    - intros n Hn. rewrite (ExG n Hn). reflexivity.
    - intros n Hn. rewrite (proj2 (ExZ n Hn)). unfold not_gz. destruct (ext_is n gz_sfx); reflexivity. }
  split.
  { intros n Hn. specialize (Z n Hn). unfold arch. destruct (ext_is n gz_sfx).
    - pose proof (Hex n (InZ n Hn)) as X. destruct Z as [_ F]. rewrite F. unfold file_of.
      destruct (lookup (wfs w) n) as [i|]; [|congruence]. exists (inode (wfs w) i), (inode (wfs w) i).
      repeat split; auto; discriminate.
    - destruct Z as (i & j & Li & _ & Lg & D & Gz & Dr). unfold file_of. rewrite Li, Lg.
      exists (inode (wfs w) i), (inode (wfs w') j). repeat split; auto. }
  intros Hne m Hm. apply in_map_iff in Hm. destruct Hm as (n & <- & Hn). unfold arch.
  destruct (ext_is n gz_sfx) eqn:G'; [exact G'|]. apply ext_is_gz_name. intros ->. apply Hne, InZ, Hn.
Qed.
Print Assumptions cleanup_loop_counts.

(* remove_redundant followed by the loop, as in cleanup_impl: the hypotheses are about the listing only
   (pairwise different existing names, none empty, no archive name of a listed name is a directory). *)
Theorem cleanup_after_listing w files ll total :
  quiet w -> fs_wf (wfs w) -> NoDup files -> ~ In [] files -> ll <= total ->
  (forall n, In n files -> lookup (wfs w) n <> None) ->
  (forall n, In n files -> not_dir (wfs w) (gz_name n)) ->
  let red := redundant_gz files in
  let files' := without red files in
  exists w1 w', remove_redundant w red files = (true, w1, files')
    /\ cleanup_loop w1 files' 0 ll total None = (true, w') /\ same_env w w' /\ fs_wf (wfs w')
    (* a redundant archive is gone - unless its original is compressed now, which creates it anew (see the zone) *)
    /\ (forall n, In n red -> ~ In n (map gz_name (filter not_gz (zone_part ll total files'))) -> lookup (wfs w') n = None)
    /\ (forall n, In n (keep_part ll files') -> same_at (wfs w) (wfs w') n)
    /\ (forall n, In n (zone_part ll total files') ->
          if ext_is n gz_sfx then same_at (wfs w) (wfs w') n else archived (wfs w) (wfs w') n)
    /\ (forall n, In n (gone_part total files') -> lookup (wfs w') n = None)
    /\ length (keep_part ll files') <= ll /\ length (zone_part ll total files') <= total - ll
    /\ (forall m, ~ In m files -> ~ In m (map gz_name (filter not_gz (zone_part ll total files'))) ->
          same_at (wfs w) (wfs w') m).
Proof.
  intros Q W ND Hne Hle Hex Hnd red files'.
  destruct (cleanup_after_listing_skip None (fun _ => false) (fun _ => eq_refl) w files ll total Q W ND Hne Hle Hex Hnd)
    as (w1 & w' & E1 & E' & S & W' & R & K & Z & G & LK & LZ & Fr & _).
  assert (NG : forall l, filter (fun n => not_gz n && negb false) l = filter not_gz l)
    by (intros l; apply filter_ext; intros n; apply andb_true_r).
  rewrite NG in R, Fr.
  exists w1, w'. split; [exact E1|]. split; [exact E'|]. split; [exact S|]. split; [exact W'|]. split; [exact R|].
  split; [exact K|]. split; [|split; [exact G|]; split; [exact LK|]; split; [exact LZ | exact Fr]].
  intros n Hn. specialize (Z n Hn). rewrite orb_false_r in Z. exact Z.
Qed.
Print Assumptions cleanup_after_listing.

(* ------------------------------------------------------------------ examples *)
From Coq Require String.
Import String.StringSyntax.
Delimit Scope string_scope with string.
Definition mkfile (f : fs) (name data : bytes) (gz : N) (born : Z) : fs :=
  let '(f1, i) := create_file f name gz born in append_ino f1 i data.
Lemma wf_mkfile f name data gz born : fs_wf f -> lookup f name = None -> fs_wf (mkfile f name data gz born).
Proof.
  intros W H. unfold mkfile. pose proof (wf_create f name gz born W H) as W1.
  destruct (create_file f name gz born) as [f1 i]. apply wf_append. exact W1.
Qed.
Definition world_of (f : fs) : world :=
  {| wfs := f; wnow := 100%Z; woff := 0%Z; wfaults := []; wkill := None; werrs := []; wlink := None; wacts := 0 |}.

(* four files, newest first; the third is an archive already.  log_limit = 1, total = 3 *)
Definition n3 : bytes := bs "app_r00003.log"%string.
Definition n2 : bytes := bs "app_r00002.log"%string.
Definition n1 : bytes := bs "app_r00001.log.gz"%string.
Definition n0 : bytes := bs "app_r00000.log"%string.
Definition fs4 : fs :=
  mkfile (mkfile (mkfile (mkfile empty_fs n0 (bs "zero"%string) 0 10) n1 (bs "one"%string) 1 20) n2 (bs "two"%string) 0 30)
         n3 (bs "three"%string) 0 40.
Definition files4 : list bytes := [n3; n2; n1; n0].

Lemma fs4_wf : fs_wf fs4.
Proof. unfold fs4. repeat (apply wf_mkfile; [|vm_compute; reflexivity]). apply wf_empty. Qed.
Lemma files4_nodup : NoDup files4.
Proof.
  unfold files4. repeat (constructor; [cbn [In]; intros H; repeat (destruct H as [H|H]; [vm_compute in H; discriminate H|]); exact H|]).
  constructor.
Qed.

(* the hypotheses of cleanup_loop_spec hold for this world (they are not vacuous) ... *)
Example cleanup_loop_spec_instance :
  exists w', cleanup_loop (world_of fs4) files4 0 1 3 None = (true, w') /\ same_env (world_of fs4) w' /\ fs_wf (wfs w')
    /\ same_at fs4 (wfs w') n3 /\ archived fs4 (wfs w') n2 /\ same_at fs4 (wfs w') n1 /\ lookup (wfs w') n0 = None.
Proof.
  destruct (cleanup_loop_spec (world_of fs4) files4 0 1 3) as (w' & E & S & W' & O & _).
  - split; reflexivity.
  - exact fs4_wf.
  - exact files4_nodup.
  - intros k n Hk _. do 4 (destruct k as [|k]; [injection Hk as <-; vm_compute; discriminate|]). destruct k; discriminate.
  - intros k n Hk _ _. do 4 (destruct k as [|k]; [injection Hk as <-; vm_compute; intros H; repeat (destruct H as [H|H]; [discriminate H|]); exact H|]).
    destruct k; discriminate.
  - intros k n Hk _ _. do 4 (destruct k as [|k]; [injection Hk as <-; vm_compute; exact I|]). destruct k; discriminate.
  - exists w'. split; [exact E|]. split; [exact S|]. split; [exact W'|].
    split; [apply (O 0 n3 eq_refl); [cbn; lia | left; cbn; lia]|].
    split; [apply (O 1 n2 eq_refl); [cbn; lia | vm_compute; reflexivity]|].
    split; [apply (O 2 n1 eq_refl); [cbn; lia | right; vm_compute; reflexivity]|].
    apply (O 3 n0 eq_refl). cbn; lia.
Qed.

(* ... and the model computes exactly this: the newest file and the old archive as before, the second file
   compressed (kind 1, same content), the oldest file gone *)
Example cleanup_loop_run :
  let r := cleanup_loop (world_of fs4) files4 0 1 3 None in
  fst r = true
  /\ List.map (file_of (wfs (snd r))) [n3; n2; gz_name n2; n1; n0]
     = [Some {| fdata := bs "three"%string; fgz := 0; fborn := 40; fdir := false |};
        None;
        Some {| fdata := bs "two"%string; fgz := 1; fborn := 100; fdir := false |};
        Some {| fdata := bs "one"%string; fgz := 1; fborn := 20; fdir := false |};
        None].
Proof. vm_compute. split; reflexivity. Qed.

(* a listed name that does not exist makes the loop fail (remove_file and File::open report NotFound) *)
Example cleanup_loop_missing_file :
  fst (cleanup_loop (world_of fs4) [n3; bs "app_r00009.log"%string] 0 1 1 None) = false
  /\ fst (cleanup_loop (world_of fs4) [n3; bs "app_r00009.log"%string] 0 1 2 None) = false.
Proof. vm_compute. split; reflexivity. Qed.
Example remove_redundant_missing_file :
  fst (fst (remove_redundant (world_of fs4) [bs "app_r00009.log.gz"%string] files4)) = false.
Proof. vm_compute. reflexivity. Qed.

(* Why the archive name of a compressed entry must not be listed: with the listing [a.log.gz; a.log] and
   log_limit = 1 the kept archive is overwritten by the compression of a.log.  cleanup_impl avoids this by removing
   such archives first (remove_redundant, no_clash_without_redundant). *)
Definition fs_clash : fs := mkfile (mkfile empty_fs (bs "a.log"%string) (bs "new"%string) 0 10) (bs "a.log.gz"%string) (bs "old"%string) 1 20.
Example cleanup_loop_clash :
  let r := cleanup_loop (world_of fs_clash) [bs "a.log.gz"%string; bs "a.log"%string] 0 1 2 None in
  fst r = true
  /\ file_of fs_clash (bs "a.log.gz"%string) = Some {| fdata := bs "old"%string; fgz := 1; fborn := 20; fdir := false |}
  /\ file_of (wfs (snd r)) (bs "a.log.gz"%string) = Some {| fdata := bs "new"%string; fgz := 1; fborn := 20; fdir := false |}.
Proof. vm_compute. repeat split. Qed.

(* A directory with the archive name: the compression fails (File::create: EISDIR) and nothing is changed;
   hence the hypothesis not_dir in the theorems. *)
Definition fs_dir : fs :=
  {| names := [(bs "a.log.gz"%string, 1%nat); (bs "a.log"%string, 0%nat)];
     inodes := [ {| fdata := bs "x"%string; fgz := 0; fborn := 1; fdir := false |};
                 {| fdata := []; fgz := 0; fborn := 2; fdir := true |} ] |}.
Example compress_file_over_directory :
  compress_file (world_of fs_dir) (bs "a.log"%string) = (false, world_of fs_dir)
  /\ fst (cleanup_loop (world_of fs_dir) [bs "a.log"%string] 0 0 1 None) = false
  /\ file_of fs_dir (bs "a.log.gz"%string) = Some {| fdata := []; fgz := 0; fborn := 2; fdir := true |}.
Proof. vm_compute. repeat split. Qed.

(* a name without extension is compressed as well (the None branch of the loop test) *)
Definition fs_noext : fs := mkfile empty_fs (bs "applog"%string) (bs "data"%string) 0 10.
Example cleanup_loop_no_extension :
  let r := cleanup_loop (world_of fs_noext) [bs "applog"%string] 0 0 1 None in
  act 0 1 0 (bs "applog"%string) = ACompress /\ fst r = true
  /\ file_of (wfs (snd r)) (bs "applog"%string) = None
  /\ file_of (wfs (snd r)) (bs "applog.gz"%string) = Some {| fdata := bs "data"%string; fgz := 1; fborn := 100; fdir := false |}.
Proof. vm_compute. repeat split. Qed.

(* ------------------------------------------------------------------ 4. the current output file (o_current) *)
(* The loop skips the entry equal to cur.  Where every position that holds the current file is a position that is
   kept anyway (e.g. position 0 with log_limit >= 1, where the direct namings put it as long as the clock is not
   set back), or where the current file is not listed, the argument makes no difference: the theorems above apply. *)
Lemma cleanup_loop_cur_kept ll total p : forall files w idx,
  (forall k, nth_error files k = Some p -> act ll total (idx + k) p = AKeep) ->
  cleanup_loop w files idx ll total (Some p) = cleanup_loop w files idx ll total None.
Proof.
  induction files as [|n r IH]; intros w idx H; [reflexivity|].
  assert (HS : forall w1, cleanup_loop w1 r (S idx) ll total (Some p) = cleanup_loop w1 r (S idx) ll total None).
  { intros w1. apply IH. intros k Hk. replace (S idx + k) with (idx + S k) by lia. apply H. exact Hk. }
  rewrite (cleanup_loop_cons_skip (Some p) (beq p) (fun _ => eq_refl)), cleanup_loop_cons. unfold act_skip.
  destruct (beq p n) eqn:B.
  - apply beq_eq in B. subst n. specialize (H 0 eq_refl). rewrite Nat.add_0_r in H. rewrite H. apply HS.
  - destruct (act ll total idx n).
    + apply HS.
    + destruct (compress_file w n) as [[|] w1]; [apply HS | reflexivity].
    + destruct (p_remove w n) as [[|] w1]; [apply HS | reflexivity].
Qed.

(* the current file is not listed *)
Lemma cleanup_loop_cur_not_listed ll total p files w idx : ~ In p files ->
  cleanup_loop w files idx ll total (Some p) = cleanup_loop w files idx ll total None.
Proof. intros H. apply cleanup_loop_cur_kept. intros k Hk. exfalso. apply H. eapply nth_error_In; exact Hk. Qed.

(* the current file is listed among the first log_limit entries only (NoDup: once) *)
Lemma cleanup_loop_cur_in_keep ll total p files w : NoDup files -> ll <= total -> In p (keep_part ll files) ->
  cleanup_loop w files 0 ll total (Some p) = cleanup_loop w files 0 ll total None.
Proof.
  intros ND Hle Hin. apply cleanup_loop_cur_kept. intros k Hk. cbn [Nat.add].
  apply In_firstn_nth in Hin. destruct Hin as (j & Hj & Ej).
  assert (k = j).
  { apply (proj1 (NoDup_nth_error files) ND); [apply nth_error_Some; congruence | congruence]. }
  subst j. apply act_keep. split; [lia | left; exact Hj].
Qed.

(* whatever cur is, it makes no difference for cleanup_impl's first limit when the limit is positive *)
Lemma cur_limit_pos (cur : option bytes) ll : 1 <= ll ->
  (if match cur with Some _ => true | None => false end && Nat.eqb ll 0 then 1 else ll) = ll.
Proof. intros H. destruct ll; [lia|]. cbn [Nat.eqb]. rewrite andb_false_r. reflexivity. Qed.
