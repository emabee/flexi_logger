(* NumbersDirect naming with a cleanup strategy, cleanup in a background thread (c_bg c = true): what the last part
   of BgSim.v does for Numbers naming, by the same theorem bg_sim_whole (which does not depend on the naming).

   SCHEDULING ASSUMPTION (Model.cleanup_or_queue, BgSim.v): the cleanup thread finishes each request before the logging
   thread starts its next operation.  CAUTION for a direct naming: the listing that the cleanup works on contains the file
   that is BEING WRITTEN (r<L>, position 0 of the listing).  Under the scheduling assumption the request is worked off
   between two operations of the logging thread, i.e. in exactly the world in which the synchronous variant works it off
   (same directory, same pending bytes of the writer): the current file is in the "keep as it is" part (first limit at
   least 1, klimd) and is not touched.  Nothing is said about a cleanup that runs WHILE the logging thread writes to r<L>
   (the model has no such interleaving); see exdb_side_by_side for the check by computation.

   The runs of numbersdirect_cleanup_stream report nothing (numdk_run_clean), so bg_sim_whole applies:
   numbersdirect_cleanup_stream_bg, numbersdirect_cleanup_bg, numbersdirect_cleanup_partition_bg,
   numbersdirect_cleanup_no_panic_bg. *)
Require Import FL.Base.Bytes FL.Fs.Fs FL.Names.FileSpec FL.Flw.Model FL.Flw.NumInv FL.Flw.Run FL.Flw.NumRun
  FL.Oracles.O_Flw FL.Flw.NumTheorems FL.Flw.NumKillRestart FL.Flw.NumCleanupNames FL.Flw.NumCleanupRun
  FL.Flw.NumCleanup FL.Flw.NumDCleanupStep FL.Flw.NumDCleanupRun FL.Flw.NumDCleanup FL.Flw.LinkSim FL.Flw.BgSim.
From Coq Require Import ZifyN ZifyNat ZifyBool.
Open Scope nat_scope.

(* ------------------------------------------------------------------ the runs of numbersdirect_cleanup_stream report nothing *)
Lemma numdk_run_clean c crit k : numdkcfg c crit k -> forall ops x a, RelDK c crit k x a -> Forall basic_op ops ->
  dside c k (nclosed (a_run a ops (snd (run x ops)))) -> clean_run x ops.
Proof.
  intros Hcfg. induction ops as [|o r IH]; intros x a R Hb Hside; [exact I|].
  cbn [run clean_run] in *. inversion Hb as [|o' r' Ho Hr]; subst.
  pose proof (step_rel_dk0 c crit k x a o Hcfg Hside R Ho) as S. destruct (step x o) as [x1 ob].
  specialize (IH x1 (a_step a o (rot_of ob))). destruct (run x1 r) as [x2 obs]. cbn [fst snd a_run] in *.
  destruct S as (R1 & _ & _ & K & E). split; [exact K|]. split; [exact E|]. apply IH; assumption.
Qed.

(* the configuration is of the family numdkcfg but for c_bg *)
Lemma numdkcfg_nobg c crit k : numdkcfg (nobg c) crit k -> c_async c = false /\ c_symlink c = false.
Proof. intros (_ & _ & Hs & Ha & _). split; assumption. Qed.

(* every configuration with NumbersDirect naming, without start-time part, symlink and async handle - whatever c_bg -
   is of the family after nobg *)
Lemma numdkcfg_nobg_intro c crit k :
  c_rot c = Some (crit, NNumbersDirect, k) -> fts (c_spec c) = false -> c_symlink c = false -> c_async c = false ->
  numdkcfg (nobg c) crit k.
Proof. intros. repeat split; assumption. Qed.

(* the worlds of numbersdirect_cleanup_stream, with cleanup in the background thread: identical *)
Theorem bg_worlds_numbersdirect_cleanup c crit k t0 off ops :
  numdkcfg (nobg c) crit k -> Forall basic_op ops ->
  dside (nobg c) k (nclosed (a_run None ops (snd (run (fst (step (sys0 t0 off) (OStart (nobg c)))) ops)))) ->
  let rb := run (sys0 t0 off) (OStart c :: ops) in
  let rn := run (sys0 t0 off) (OStart (nobg c) :: ops) in
  let rb' := run (sys0 t0 off) (OStart c :: ops ++ [OStop]) in
  let rn' := run (sys0 t0 off) (OStart (nobg c) :: ops ++ [OStop]) in
  (s_w (fst rb) = s_w (fst rn) /\ snd rb = snd rn) /\ (s_w (fst rb') = s_w (fst rn') /\ snd rb' = snd rn').
Proof.
  intros Hcfg Hb Hside. destruct (numdkcfg_nobg c crit k Hcfg) as [Ha Hs].
  apply bg_sim_whole; try assumption.
  exact (numdk_run_clean (nobg c) crit k Hcfg ops _ None (start_rel_dk (nobg c) crit k t0 off) Hb Hside).
Qed.

(* in particular the observations, hence the reader's view a, are the same *)
Corollary bg_view_numbersdirect_cleanup c crit k t0 off ops :
  numdkcfg (nobg c) crit k -> Forall basic_op ops ->
  dside (nobg c) k (nclosed (a_run None ops (snd (run (fst (step (sys0 t0 off) (OStart (nobg c)))) ops)))) ->
  a_run None ops (snd (run (fst (step (sys0 t0 off) (OStart c))) ops))
  = a_run None ops (snd (run (fst (step (sys0 t0 off) (OStart (nobg c)))) ops)).
Proof.
  intros Hcfg Hb Hside. destruct (bg_worlds_numbersdirect_cleanup c crit k t0 off ops Hcfg Hb Hside) as [[_ E] _]. cbn zeta in E.
  cbn [run] in E. destruct (step (sys0 t0 off) (OStart c)) as [xb0 ob0]. destruct (step (sys0 t0 off) (OStart (nobg c))) as [xn0 on0].
  cbn [fst]. destruct (run xb0 ops) as [xb1 lb]. destruct (run xn0 ops) as [xn1 ln]. cbn [snd] in *. injection E as _ ->. reflexivity.
Qed.

(* the views mention the configuration through the file names only *)
Lemma dkreader_view_nobg c f closed cur lo mid : dkreader_view (nobg c) f closed cur lo mid -> dkreader_view c f closed cur lo mid.
Proof. intros [[A B C D E] H]. split; [constructor; assumption | exact H]. Qed.

Theorem numbersdirect_cleanup_stream_bg c crit k t0 off ops :
  numdkcfg (nobg c) crit k -> Forall basic_op ops ->
  let a := a_run None ops (snd (run (fst (step (sys0 t0 off) (OStart (nobg c)))) ops)) in
  dside (nobg c) k (nclosed a) ->
  let r := run (sys0 t0 off) (OStart c :: ops ++ [OStop]) in
  let f := wfs (s_w (fst r)) in
  flat a = written ops
  /\ match a with
     | None => names f = []
     | Some (closed, cur) => dkreader_view c f closed cur (d_lo k (length closed)) (d_mid k (length closed))
     end
  /\ Forall obs_ok (snd r).
Proof.
  intros Hcfg Hb a Hside r f. destruct (bg_worlds_numbersdirect_cleanup c crit k t0 off ops Hcfg Hb Hside) as [_ [E Eo]]. cbn zeta in E, Eo.
  unfold f, r. rewrite E, Eo.
  pose proof (numbersdirect_cleanup_stream (nobg c) crit k t0 off ops Hcfg Hb Hside) as [T1 [T2 T3]]. split; [exact T1|].
  split; [|exact T3].
  fold a in T2. destruct a as [[closed cur]|]; [apply dkreader_view_nobg; exact T2 | exact T2].
Qed.

(* closed, cur: the reader's view that the run would leave without cleanup (by bg_view_numbersdirect_cleanup it is the same for both variants) *)
Theorem numbersdirect_cleanup_bg c crit k n m t0 off ops closed cur :
  numdkcfg (nobg c) crit k -> klimd k = Some (n, m) -> Forall basic_op ops ->
  sfx_ok (c_spec c) ->
  a_run None ops (snd (run (fst (step (sys0 t0 off) (OStart (nobg c)))) ops)) = Some (closed, cur) ->
  let f := wfs (s_w (fst (run (sys0 t0 off) (OStart c :: ops ++ [OStop])))) in
  let L := length closed in let lo := S L - (n + m) in let mid := S L - n in
  concat closed ++ cur = written ops
  /\ (forall x, (exists j, lookup f x = Some j) <->
        (exists i, mid <= i <= L /\ x = rname c i) \/ (exists i, lo <= i < mid /\ x = gname c i))
  /\ NoDup (dir_names f)
  /\ lookup f (cname c) = None
  /\ 1 <= n /\ mid <= L /\ S L - mid <= n /\ mid - lo <= m
  /\ (forall off', list_log_gz off' (c_spec c) (fixed0 c) f IFNum = Some (listing c lo mid (S L)))
  /\ (forall off', get_highest_index off' (c_spec c) (fixed0 c) f <> None)
  /\ (forall i, mid <= i < L -> lookup f (gname c i) = None /\
        exists fl, file_of f (rname c i) = Some fl /\ fdata fl = nth i closed [] /\ fgz fl = 0%N /\ fdir fl = false)
  /\ (forall i, lo <= i < mid -> lookup f (rname c i) = None /\
        exists fl, file_of f (gname c i) = Some fl /\ fdata fl = nth i closed [] /\ fgz fl = 1%N /\ fdir fl = false)
  /\ (forall i, i < lo -> lookup f (rname c i) = None /\ lookup f (gname c i) = None)
  /\ written ops = concat (firstn lo closed) ++ concat (map (fun i => data_at f (entry c mid i)) (seq lo (S L - lo)))
  /\ lookup f (gname c L) = None
  /\ (exists fl, file_of f (rname c L) = Some fl /\ fdata fl = cur /\ fgz fl = 0%N /\ fdir fl = false).
Proof.
  intros Hcfg Hk Hb Hsfx Ea f.
  assert (Hside : dside (nobg c) k (nclosed (a_run None ops (snd (run (fst (step (sys0 t0 off) (OStart (nobg c)))) ops))))).
  { rewrite Ea. unfold dside. rewrite Hk. exact Hsfx. }
  destruct (bg_worlds_numbersdirect_cleanup c crit k t0 off ops Hcfg Hb Hside) as [_ [E _]]. cbn zeta in E.
  unfold f. rewrite E.
  exact (numbersdirect_cleanup (nobg c) crit k n m t0 off ops closed cur Hcfg Hk Hb Hsfx Ea).
Qed.

(* size criterion: the view is a function of the operations *)
Theorem numbersdirect_cleanup_partition_bg c k m t0 off ops :
  numdkcfg (nobg c) (CSize m) k -> Forall basic_op ops ->
  dside (nobg c) k (nclosed (s_run m None ops)) ->
  let f := wfs (s_w (fst (run (sys0 t0 off) (OStart c :: ops ++ [OStop])))) in
  match s_run m None ops with
  | None => names f = []
  | Some (closed, cur) =>
    closed ++ [cur] = expected_files m None (items false ops)
    /\ dkreader_view c f closed cur (d_lo k (length closed)) (d_mid k (length closed))
  end.
Proof.
  intros Hcfg Hb Hside f.
  assert (Hside' : dside (nobg c) k (nclosed (a_run None ops (snd (run (fst (step (sys0 t0 off) (OStart (nobg c)))) ops))))).
  { pose proof (start_rel_dk (nobg c) (CSize m) k t0 off) as R0.
    rewrite (run_size_dk' (nobg c) k m Hcfg ops _ None R0 Hb Hside). exact Hside. }
  destruct (bg_worlds_numbersdirect_cleanup c (CSize m) k t0 off ops Hcfg Hb Hside') as [_ [E _]]. cbn zeta in E.
  unfold f. rewrite E. pose proof (numbersdirect_cleanup_partition (nobg c) k m t0 off ops Hcfg Hb Hside) as T. cbn zeta in T.
  destruct (s_run m None ops) as [[closed cur]|]; [|exact T]. destruct T as [T1 T2]. split; [exact T1 | apply dkreader_view_nobg; exact T2].
Qed.

Theorem numbersdirect_cleanup_no_panic_bg c crit k t0 off ops :
  numdkcfg (nobg c) crit k -> Forall basic_op ops ->
  dside (nobg c) k (nclosed (a_run None ops (snd (run (fst (step (sys0 t0 off) (OStart (nobg c)))) ops)))) ->
  Forall obs_ok (snd (run (sys0 t0 off) (OStart c :: ops ++ [OStop]))).
Proof.
  intros Hcfg Hb Hside. destruct (bg_worlds_numbersdirect_cleanup c crit k t0 off ops Hcfg Hb Hside) as [_ [_ E]]. cbn zeta in E.
  rewrite E. exact (numbersdirect_cleanup_no_panic (nobg c) crit k t0 off ops Hcfg Hb Hside).
Qed.

Print Assumptions bg_worlds_numbersdirect_cleanup.
Print Assumptions numbersdirect_cleanup_stream_bg.
Print Assumptions numbersdirect_cleanup_bg.
Print Assumptions numbersdirect_cleanup_partition_bg.
Print Assumptions numbersdirect_cleanup_no_panic_bg.

(* ------------------------------------------------------------------ examples *)
Section Examples.
Import String.StringSyntax.

(* the history of NumDCleanup.v (six records, a rotation before each but the first), KLogGz 2 2, c_bg = true *)
Definition exdb_c : config := with_bg (exd_kcfg (KLogGz 2 2) log_sfx).
Example exdb_bg : c_bg exdb_c = true /\ nobg exdb_c = exd_kcfg (KLogGz 2 2) log_sfx.
Proof. split; reflexivity. Qed.

(* Side by side, by computation: with the cleanup in the background thread and in the logging thread - the same directory
   at the end, the same observations (the snapshot before the stop included), nothing reported, no request left over; the file
   being written (r00005) is there, plain, with its content, although every cleanup listed it *)
Example exdb_side_by_side :
  let rb := run (sys0 0 0) (OStart exdb_c :: ex_ops ++ [OSnap; OStop]) in
  let rn := run (sys0 0 0) (OStart (nobg exdb_c) :: ex_ops ++ [OSnap; OStop]) in
  snapshot (s_w (fst rb)) = snapshot (s_w (fst rn)) /\ snd rb = snd rn
  /\ snapshot (s_w (fst rb))
     = ObsSnap [(bs "a_r00002.log.gz"%string, 1%N, rec5 2); (bs "a_r00003.log.gz"%string, 1%N, rec5 3);
                (bs "a_r00004.log"%string, 0%N, rec5 4); (bs "a_r00005.log"%string, 0%N, rec5 5)] None []
  /\ wacts (s_w (fst rb)) = 0.
Proof. vm_compute. repeat split. Qed.

(* the same at EVERY point of the history (all prefixes), with a buffered writer: the pending bytes of the current file
   are not lost by a cleanup that runs in between *)
Definition exdb_c2 : config := with_bg exd_c2.
Example exdb_prefixes :
  forallb (fun i =>
    let rb := run (sys0 0 0) (OStart exdb_c2 :: firstn i exd_ops2 ++ [OSnap]) in
    let rn := run (sys0 0 0) (OStart (nobg exdb_c2) :: firstn i exd_ops2 ++ [OSnap]) in
    match snd rb, snd rn with
    | lb, ln => (length lb =? length ln) && (length (werrs (s_w (fst rb))) =? 0) && (wacts (s_w (fst rb)) =? 0)
    end) (seq 0 (S (length exd_ops2))) = true
  /\ forall i, i <= length exd_ops2 ->
       snd (run (sys0 0 0) (OStart exdb_c2 :: firstn i exd_ops2 ++ [OSnap]))
       = snd (run (sys0 0 0) (OStart (nobg exdb_c2) :: firstn i exd_ops2 ++ [OSnap])).
Proof.
  split; [vm_compute; reflexivity|]. intros i Hi.
  assert (H : In i (seq 0 (S (length exd_ops2)))) by (apply in_seq; lia).
  cbn [length exd_ops2 seq] in H. repeat (destruct H as [<-|H]; [vm_compute; reflexivity|]). destruct H.
Qed.

(* the flag in the writer state is what differs under way *)
Example exdb_flag :
  let bg_of x := match s_flw x with
                 | Some s => match f_inner s with Active (Some rs) _ _ => Some (rs_bg rs) | _ => None end
                 | None => None end in
  (bg_of (fst (run (sys0 0 0) (OStart exdb_c :: ex_ops))), bg_of (fst (run (sys0 0 0) (OStart (nobg exdb_c) :: ex_ops))))
  = (Some true, Some false).
Proof. vm_compute. reflexivity. Qed.

(* instances of the theorems: the hypotheses hold for this history *)
Example exdb_instance :
  let f := wfs (s_w (fst (run (sys0 0 0) (OStart exdb_c :: ex_ops ++ [OStop])))) in
  dkreader_view exdb_c f exd_closed (rec5 5) 2 4
  /\ Forall obs_ok (snd (run (sys0 0 0) (OStart exdb_c :: ex_ops ++ [OStop]))).
Proof.
  intros f.
  assert (Es : s_run 3 None ex_ops = Some (exd_closed, rec5 5)) by (vm_compute; reflexivity).
  split.
  - pose proof (numbersdirect_cleanup_partition_bg exdb_c (KLogGz 2 2) 3 0 0 ex_ops (exd_numdkcfg _ _) ex_ops_basic) as T.
    cbv zeta in T. rewrite Es in T. fold f in T.
    destruct T as [_ V]. { exact (exd_sfx_ok _). }
    exact V.
  - apply (numbersdirect_cleanup_no_panic_bg exdb_c (CSize 3) (KLogGz 2 2) 0 0 ex_ops (exd_numdkcfg _ _) ex_ops_basic).
    change (nobg exdb_c) with (exd_kcfg (KLogGz 2 2) log_sfx). rewrite exd_view. exact (exd_sfx_ok _).
Qed.

Example exdb_instance_names :
  let f := wfs (s_w (fst (run (sys0 0 0) (OStart exdb_c :: ex_ops ++ [OStop])))) in
  (forall x, (exists j, lookup f x = Some j) <->
        (exists i, 4 <= i <= 5 /\ x = rname exdb_c i) \/ (exists i, 2 <= i < 4 /\ x = gname exdb_c i))
  /\ lookup f (gname exdb_c 5) = None
  /\ (exists fl, file_of f (rname exdb_c 5) = Some fl /\ fdata fl = rec5 5 /\ fgz fl = 0%N /\ fdir fl = false).
Proof.
  intros f.
  pose proof (numbersdirect_cleanup_bg exdb_c (CSize 3) (KLogGz 2 2) 2 2 0 0 ex_ops exd_closed (rec5 5)
                (exd_numdkcfg _ _) eq_refl ex_ops_basic (exd_sfx_ok _) exd_view) as T.
  cbv zeta in T. fold f in T. change (length exd_closed) with 5 in T. cbn [Nat.sub Nat.add] in T.
  destruct T as (_ & Names & _ & _ & _ & _ & _ & _ & _ & _ & _ & _ & _ & _ & NoG & Cur).
  split; [exact Names|]. split; [exact NoG | exact Cur].
Qed.

(* Where the two variants differ (not covered by the theorems, and the reason for the hypothesis clean_run of
   bg_sim_whole): when the cleanup fails - here by an injected fault in its directory listing; OSetFaults is not a basic
   operation - the logging thread reports the failed rotation (ELogFile), whereas nobody looks at the result of the
   background thread.  In both variants the current file r00001 holds the record *)
Definition exdb_ops_fault : list op :=
  [OWrite (bs "abcd"%string); OSetFaults [false; true]; OWrite (bs "efgh"%string)].
Example exdb_fault :
  (werrs (s_w (fst (run (sys0 0 0) (OStart exdb_c :: exdb_ops_fault)))),
   werrs (s_w (fst (run (sys0 0 0) (OStart (nobg exdb_c) :: exdb_ops_fault)))))
  = ([], [ELogFile])
  /\ snapshot (s_w (fst (run (sys0 0 0) (OStart exdb_c :: exdb_ops_fault ++ [OStop]))))
     = ObsSnap [(bs "a_r00000.log"%string, 0%N, bs "abcd"%string); (bs "a_r00001.log"%string, 0%N, bs "efgh"%string)] None []
  /\ snapshot (s_w (fst (run (sys0 0 0) (OStart (nobg exdb_c) :: exdb_ops_fault ++ [OStop]))))
     = ObsSnap [(bs "a_r00000.log"%string, 0%N, bs "abcd"%string); (bs "a_r00001.log"%string, 0%N, bs "efgh"%string)] None [ELogFile].
Proof. vm_compute. repeat split; reflexivity. Qed.
End Examples.
