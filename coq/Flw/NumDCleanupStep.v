(* NumbersDirect naming with cleanup, part 1: one run of the cleanup (cleanup_impl with cur = Some (the file being
   written), the repaired code: the loop skips that entry; here it is at position 0 and kept anyway) on a directory
   of the shape "plain files r<i> for mid <= i < L, archives r<i>.gz for lo <= i < mid" - there is no rCURRENT: the file
   that is being written is the newest numbered file r<L-1>, and it IS PART OF THE LISTING that the cleanup works on
   (position 0, the listing is newest first).  What protects it:  the cleanup is told which file it is (cur) and skips it
   (repaired code, CurrentSpared.v); cleanup_impl also raises a log limit of 0 to 1 for the direct namings, so position 0 is
   always in the "keep as it is" part.  Consequence for the limits:
     KeepLogFiles(n)                  keeps n plain files IN TOTAL, the current one included: n - 1 closed files (n >= 1);
     KeepLogFiles(0)                  keeps the current file only;
     KeepCompressedFiles(m)           = KeepLogAndCompressedFiles(0, m) = KeepLogAndCompressedFiles(1, m):
                                      the current file stays plain, the m closed files before it are archives;
     KeepLogAndCompressedFiles(n, m)  n >= 1: the current file and n - 1 closed files plain, the next m as archives.
   klimd gives these effective limits (plain files including the current one, archives).
   The names, the listing and the directory description (kdir) are those of Numbers naming (NumCleanupNames.v,
   NumCleanupStep.v): a directory without rCURRENT satisfies them as well. *)
Require Import FL.Base.Bytes FL.Fs.FsFacts FL.Names.FileSpec FL.Flw.Model FL.Flw.ModelFacts FL.Flw.NumInv
  FL.Flw.CleanupFacts FL.Flw.NumCleanupNames FL.Flw.NumCleanupStep.
From Coq Require Import ZifyN ZifyNat ZifyBool.
Open Scope nat_scope.

(* ------------------------------------------------------------------ the effective limits of a direct naming *)
(* (plain files kept, the file being written included; files kept as archives) *)
Definition klimd (k : cleanup) : option (nat * nat) :=
  match klim k with Some (n, m) => Some (Nat.max 1 n, m) | None => None end.

Lemma klimd_pos k n m : klimd k = Some (n, m) -> 1 <= n.
Proof. unfold klimd. destruct (klim k) as [[a b]|]; [|discriminate]. intros H. assert (E : n = Nat.max 1 a) by congruence. lia. Qed.
Lemma klimd_none k : klimd k = None -> k = KNever.
Proof. unfold klimd. destruct k; cbn [klim]; congruence. Qed.
Lemma klimd_klim k : klimd k = None <-> klim k = None.
Proof. unfold klimd. destruct (klim k) as [[a b]|]; split; congruence. Qed.

Lemma cleanup_impl_unfold_d c w k flt n m p : klimd k = Some (n, m) -> quiet w ->
  cleanup_impl c w k flt (Some p) =
  match list_log_gz (woff w) (c_spec c) (fixed_of c w) (wfs w) flt with
  | None => (Panic, w)
  | Some files =>
    let '(ok0, w1', files') := remove_redundant w (redundant_gz files) files in
    if negb ok0 then (Err, w1') else
    let '(ok, w2) := cleanup_loop w1' files' 0 n (n + m) (Some p) in ((if ok then Ok tt else Err), w2)
  end.
Proof.
  intros H Q. unfold klimd in H. rewrite cleanup_impl_klim, (tick_quiet w Q).
  destruct (klim k) as [[a b]|]; [|discriminate]. injection H as <- <-. cbn [andb].
  destruct a as [|a]; reflexivity.
Qed.

(* ------------------------------------------------------------------ ONE CLEANUP (direct) *)
(* `closed` lists the contents of ALL numbered files, the one being written included (it is the last entry).
   Besides the new shape: the files that stay plain are untouched (same inode, same content) - in particular the last one,
   because the first limit is at least 1. *)
Theorem cleanup_numbers_d c w k n m closed lo mid :
  fts (c_spec c) = false -> sfx_ok (c_spec c) ->
  klimd k = Some (n, m) ->
  quiet w -> fs_wf (wfs w) -> kdir c (wfs w) closed lo mid ->
  exists w', cleanup_impl c w k IFNum (Some (rname c (length closed - 1))) = (Ok tt, w') /\ same_env w w' /\ fs_wf (wfs w')
    /\ kdir c (wfs w') closed (Nat.max lo (length closed - (n + m))) (Nat.max mid (length closed - n))
    /\ same_at (wfs w) (wfs w') (cname c)
    /\ (forall i, Nat.max mid (length closed - n) <= i < length closed -> same_at (wfs w) (wfs w') (rname c i)).
Proof.
  intros Hts Hsfx Hk Q W KD.
  rewrite (cleanup_impl_unfold_d c w k IFNum n m _ Hk Q), (fixed_of_fixed0 c w Hts),
    (list_log_gz_numbers c (wfs w) (woff w) lo mid (length closed) Hsfx (kdir_shape _ _ _ _ _ KD)).
  destruct (gcleanup_d (rname c) (cname c) w n m closed lo mid (gnames_numbers c _ Hsfx) Q W (proj1 (kdir_gdir _ _ _ _ _) KD)
              (klimd_pos _ _ _ Hk)) as (w' & E & S & W' & KD' & Cn & Keep).
  exists w'. split; [exact E|]. split; [exact S|]. split; [exact W'|]. split; [apply kdir_gdir; exact KD'|].
  split; [exact Cn | exact Keep].
Qed.
Print Assumptions cleanup_numbers_d.
