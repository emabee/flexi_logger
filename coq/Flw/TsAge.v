(* Timestamps naming with rCURRENT (rCURRENT + r<time stamp>[.restart-NNNN]) with an age criterion (or age-or-size, or size):
   C09 for whole runs from an empty directory.
   The timed abstract view of NumAgeInv.v (closed files and the current file, each with the instant at which it was started)
   is refined by the model.  Three things are tied to the start instant st of the current file:
   - the roll state's `created` (the birth time of rCURRENT, read back from the file system right after it was opened),
   - the time stamp `ts` of the naming state (creation_timestamp_of_currentfile: after the rename rCURRENT does not exist, so
     the clock is read - the same second in which the new rCURRENT is then created),
   - and, at the NEXT rotation, the second of the key under which the file is closed: rCURRENT is renamed to r<ts>, i.e. the
     time stamp in the name of a closed file is the second in which it was STARTED, not the second of its closing.
   The model state is a function of the timed view: the roll state is `roll_of crit (length of the current content) st`. *)
Require Import FL.Base.Bytes FL.Base.PathName FL.Fs.Fs FL.Time.Civil FL.Time.Period FL.Time.TsFormat
  FL.Names.FileSpec FL.Names.NamesFacts FL.Names.SortFacts FL.Names.FamilyFacts FL.Flw.Model FL.Flw.ModelFacts
  FL.Flw.NumInv FL.Flw.Run FL.Flw.RunFacts FL.Flw.NumRun FL.Oracles.O_Flw FL.Oracles.O_Age FL.Oracles.ReaderOrder FL.Flw.NumTheorems
  FL.Flw.NumListing FL.Flw.NumRestart FL.Flw.NumAgeInv FL.Flw.NumAge
  FL.Flw.TsTime FL.Flw.TsNames FL.Flw.TsInv FL.Flw.TsRun FL.Flw.TsTheorems FL.Flw.TsReader
  FL.Flw.TsRestartInv FL.Flw.TsdRun FL.Flw.TsdTheorems FL.Flw.TsdAge.
From Coq Require Import Sorted.
Open Scope nat_scope.

(* ------------------------------------------------------------------ the invariant against the timed view *)
(* the roll state's `created`, the naming state's time stamp AND the birth time of rCURRENT are the start instant st of the
   current file; the seconds of the keys - the time stamps in the names of the closed files - are the start instants of the
   closed files, in order *)
Definition RelTsT (c : config) (crit : criterion) (e lo : Z) (n : nat) (x : sys) (v : tview) : Prop :=
  s_tl x = [] /\ wacts (s_w x) = 0 /\
  match v with
  | None => s_flw x = Some (new_flw c) /\ quiet (s_w x) /\ names (wfs (s_w x)) = [] /\ inodes (wfs (s_w x)) = []
            /\ eoff c (s_w x) = e /\ (lo <= wnow (s_w x))%Z
  | Some (cl, (st, cu)) =>
    exists keys wr, s_flw x = Some (st_ts c st (roll_of crit (N.of_nat (length cu)) st) wr)
      /\ TsInvB c e lo (s_w x) wr keys (List.map snd cl) st
      /\ cur_view (s_w x) wr = cu /\ length (List.map snd cl) <= n
      /\ List.map fst keys = List.map fst cl
  end.

Lemma RelTsT_RelT c crit e lo n x v : RelTsT c crit e lo n x v -> TsRun.RelT c e lo n x (untime v).
Proof.
  intros [Ht [Ha R]]. split; [exact Ht|]. split; [exact Ha|].
  destruct v as [[cl [st cu]]|]; cbn [untime]; [|exact R].
  destruct R as [keys [wr [Es [[I _] [V [Hn _]]]]]]. exists keys, wr, (roll_of crit (N.of_nat (length cu)) st), st. auto.
Qed.

Lemma start_relTsT c crit t0 off : RelTsT c crit (ts_e c off) t0 0 (fst (step (sys0 t0 off) (OStart c))) None.
Proof. cbn. repeat split. cbn. lia. Qed.

(* the first write: rCURRENT is born at the present instant, and nothing is due yet *)
Lemma first_write_tst c crit e lo hi n x b :
  tscfg c crit -> tag_ok c -> years_ok e lo hi -> RelTsT c crit e lo n x None ->
  (wnow (s_w x) <= hi)%Z -> (N.of_nat n <= usize_max)%N ->
  exists w' s', write_buffer (new_flw c) (s_w x) b = (Ok tt, w', s', false)
    /\ RelTsT c crit e lo (S n) {| s_flw := Some s'; s_w := w'; s_tl := []; s_dead := s_dead x |}
              (Some ([], (wnow (s_w x), b)))
    /\ same_env (s_w x) w'.
Proof.
  intros Hcfg T Y [Ht [Ha [Es [Q [Hn [Hi [Hoff Hlo]]]]]]] Hhi Hmax.
  destruct (initialize_ts_empty c crit e lo (s_w x) Hcfg Q Hn Hi Hoff Hlo) as [w1 [wr [Ei [I [V S1]]]]].
  assert (A : ActS c e lo (st_ts c (wnow (s_w x)) (roll_of crit 0 (wnow (s_w x))) wr) w1
                ([], [], [], wnow (s_w x), roll_of crit 0 (wnow (s_w x)))).
  { exists wr. split; [reflexivity|]. split; [exact I | exact V]. }
  destruct (act_write_ts c crit e lo hi _ w1 _ _ _ _ _ b Hcfg T Y A ltac:(rewrite (same_env_now _ _ S1); exact Hhi)
              ltac:(cbn [length]; lia)) as [w' [s' [E [S' A']]]].
  assert (D : rotation_necessary w1 (roll_of crit 0 (wnow (s_w x))) = false).
  { pose proof (roll_of_decision crit w1 (wnow (s_w x)) []) as D0. cbn [length N.of_nat] in D0.
    rewrite D0, (same_env_now _ _ S1). apply due_self. }
  cbn [s_next] in A'. rewrite D in E, A'. destruct A' as [wr' [-> [I' V']]].
  eexists w', _. split; [rewrite (write_buffer_init c (s_w x) b _ _ _ w1 Ei); exact E|].
  pose proof (same_env_trans _ _ _ S1 S') as S2. split; [|exact S2].
  split; [reflexivity|]. split; [exact (same_env_acts _ _ S2 Ha)|].
  exists [], wr'. cbn [s_flw s_w List.map length].
  split; [rewrite roll_of_increase; reflexivity|]. split; [exact I'|]. split; [exact V'|]. split; [lia | reflexivity].
Qed.

Lemma step_sync_relTsT c crit e lo n x v o : tscfg c crit -> RelTsT c crit e lo n x v -> step x o = sync_step x o.
Proof. intros Hcfg R. exact (step_sync_rel_ts c crit e lo n x _ o Hcfg (RelTsT_RelT _ _ _ _ _ _ _ R)). Qed.

Lemma RelTsT_mono c crit e lo n x v : RelTsT c crit e lo n x v -> RelTsT c crit e lo (S n) x v.
Proof.
  intros [Ht [Ha R]]. split; [exact Ht|]. split; [exact Ha|]. destruct v as [[cl [st cu]]|]; [|exact R].
  destruct R as [keys [wr [Es [I [V [Hn Kf]]]]]]. exists keys, wr.
  split; [exact Es|]. split; [exact I|]. split; [exact V|]. split; [lia | exact Kf].
Qed.

(* the timed view of the state after one operation; the roll state is again the one the view determines *)
Lemma s_next_tview crit w (keys : list key) (cl : list tfile) (st : Z) (cu : bytes) o : basic_op o ->
  List.map fst keys = List.map fst cl ->
  let '(keys', closed', cur', ts', roll') := s_next w (keys, List.map snd cl, cu, st, roll_of crit (N.of_nat (length cu)) st) o in
  exists cl', t_step crit (woff w) (Some (cl, (st, cu))) (wnow w) o = Some (cl', (ts', cur'))
    /\ closed' = List.map snd cl' /\ roll' = roll_of crit (N.of_nat (length cur')) ts'
    /\ List.map fst keys' = List.map fst cl' /\ length cl' <= S (length cl).
Proof.
  intros Hb Kf. pose proof (roll_of_decision crit w st cu) as D.
  assert (Kr : List.map fst (keys ++ [(st, count st keys)]) = List.map fst (cl ++ [(st, cu)])).
  { rewrite !map_app. cbn [List.map fst]. f_equal. exact Kf. }
  assert (Lr : length (cl ++ [(st, cu)]) <= S (length cl)) by (rewrite app_length; cbn [length]; lia).
  assert (Same : exists cl', Some (cl, (st, cu)) = Some (cl', (st, cu))
            /\ List.map snd cl = List.map snd cl'
            /\ roll_of crit (N.of_nat (length cu)) st = roll_of crit (N.of_nat (length cu)) st
            /\ List.map fst keys = List.map fst cl' /\ length cl' <= S (length cl)).
  { exists cl. split; [reflexivity|]. split; [reflexivity|]. split; [reflexivity|]. split; [exact Kf | lia]. }
  assert (Wr : forall b,
            let '(keys', closed', cur', ts', roll') :=
              s_next w (keys, List.map snd cl, cu, st, roll_of crit (N.of_nat (length cu)) st) (OWrite b) in
            exists cl', (if due crit (woff w) st cu (wnow w) then Some (cl ++ [(st, cu)], (wnow w, b)) else Some (cl, (st, cu ++ b)))
                        = Some (cl', (ts', cur'))
              /\ closed' = List.map snd cl' /\ roll' = roll_of crit (N.of_nat (length cur')) ts'
              /\ List.map fst keys' = List.map fst cl' /\ length cl' <= S (length cl)).
  { intros b. cbn [s_next]. rewrite D. destruct (due crit (woff w) st cu (wnow w)).
    - exists (cl ++ [(st, cu)]). split; [reflexivity|]. split; [rewrite map_app; reflexivity|].
      split; [rewrite roll_of_reset, roll_of_increase; reflexivity|]. split; [exact Kr | exact Lr].
    - exists cl. split; [reflexivity|]. split; [reflexivity|].
      split; [rewrite roll_of_increase, app_length, Nat2N.inj_add; reflexivity|]. split; [exact Kf | lia]. }
  destruct o; try contradiction.
  - exact (Wr b).
  - exact (Wr b).
  - exact Same.
  - exists (cl ++ [(st, cu)]). split; [reflexivity|]. split; [rewrite map_app; reflexivity|].
    split; [apply roll_of_reset|]. split; [exact Kr | exact Lr].
  - exact Same.
  - exact Same.
Qed.

(* one basic operation *)
Lemma step_relTsT c crit e lo hi n x v o :
  tscfg c crit -> tag_ok c -> years_ok e lo hi -> RelTsT c crit e lo n x v -> basic_op o -> tick_ok o ->
  (wnow (s_w x) <= hi)%Z -> (N.of_nat n <= usize_max)%N ->
  let '(x', ob) := step x o in
  RelTsT c crit e lo (S n) x' (t_step crit (woff (s_w x)) v (wnow (s_w x)) o)
  /\ woff (s_w x') = woff (s_w x) /\ wnow (s_w x') = clock (wnow (s_w x)) o
  /\ (forall b, (o = OWrite b \/ o = OPlain b) -> ob = ObsRes 0 (t_flag crit (woff (s_w x)) v (wnow (s_w x)))).
Proof.
  intros Hcfg T Y R Hb Htk Hhi Hmax. destruct v as [[cl [st cu]]|].
  - destruct R as [Ht [Ha [keys [wr [Es [I [V [Hn Kf]]]]]]]].
    assert (A : ActS c e lo (st_ts c st (roll_of crit (N.of_nat (length cu)) st) wr) (s_w x)
                  (keys, List.map snd cl, cu, st, roll_of crit (N.of_nat (length cu)) st)).
    { exists wr. split; [reflexivity|]. split; [exact I | exact V]. }
    destruct (act_step_ts c crit e lo hi x _ keys (List.map snd cl) cu st _ o Hcfg T Y Es A Ht Hb Htk Hhi ltac:(lia))
      as [x' [s' [E [Es' [A' [Ht' [N' [O' Ac']]]]]]]]. rewrite E.
    pose proof (s_next_tview crit (s_w x) keys cl st cu o Hb Kf) as D.
    destruct (s_next (s_w x) (keys, List.map snd cl, cu, st, roll_of crit (N.of_nat (length cu)) st) o)
      as [[[[keys' closed'] cur'] ts'] roll'].
    destruct D as [cl' [Et [-> [-> [Kf' Hl]]]]]. destruct A' as [wr' [-> [I' V']]].
    assert (G : RelTsT c crit e lo (S n) x' (Some (cl', (ts', cur')))).
    { split; [exact Ht'|]. split; [rewrite Ac'; exact Ha|]. exists keys', wr'.
      split; [exact Es'|]. split; [exact I'|]. split; [exact V'|]. split; [rewrite map_length in *; unfold tfile in *; lia | exact Kf']. }
    split; [exact (eq_ind_r (RelTsT c crit e lo (S n) x') G Et)|]. split; [exact O'|]. split; [rewrite clock_dt; exact N'|].
    intros b Ho. cbn [t_flag]. rewrite <- (roll_of_decision crit (s_w x) st cu). destruct Ho as [-> | ->]; reflexivity.
  - pose proof R as [Ht [Ha [Es R0]]]. rewrite (step_sync_relTsT c crit e lo n x None o Hcfg R).
    destruct o; try contradiction; cbn [sync_step clock t_step t_flag].
    + (* OWrite *)
      destruct (first_write_tst c crit e lo hi n x (s_tl x ++ b) Hcfg T Y R Hhi Hmax) as [w' [s' [E [R' S']]]].
      rewrite Es. cbn [new_flw f_poisoned]. fold (new_flw c). rewrite E. cbn [s_w]. rewrite Ht in R'.
      split; [exact R'|]. split; [apply S'|]. split; [apply S'|]. intros b0 _. reflexivity.
    + (* OPlain *)
      destruct (first_write_tst c crit e lo hi n x b Hcfg T Y R Hhi Hmax) as [w' [s' [E [R' S']]]].
      rewrite Es. cbn [new_flw f_poisoned]. fold (new_flw c). rewrite E. cbn [code_of s_w]. rewrite Ht.
      split; [exact R'|]. split; [apply S'|]. split; [apply S'|]. intros b0 _. reflexivity.
    + (* OFlush *)
      rewrite Es. cbn [new_flw f_poisoned flush_state f_inner s_w].
      split; [|split; [reflexivity | split; [reflexivity | intros b [H|H]; discriminate]]].
      split; [exact Ht|]. split; [exact Ha|]. split; [reflexivity | exact R0].
    + (* OTrigger *)
      rewrite Es. cbn [new_flw f_poisoned f_cfg f_inner mount_next with_inner code_of s_w].
      split; [|split; [reflexivity | split; [reflexivity | intros b [H|H]; discriminate]]].
      split; [exact Ht|]. split; [exact Ha|]. split; [reflexivity | exact R0].
    + (* OTick *)
      cbn [s_w set_now woff wnow tick_ok] in *.
      split; [|split; [reflexivity | split; [reflexivity | intros b [H|H]; discriminate]]].
      destruct R0 as [Q [Hn [Hi [Hoff Hlo]]]]. repeat split; try assumption; try apply Q. cbn [s_w set_now wnow]. lia.
    + (* OSnap *)
      split; [apply RelTsT_mono; exact R|]. split; [reflexivity|]. split; [reflexivity | intros b [H|H]; discriminate].
Qed.

(* a whole run: the invariant, the clock, and every rotation flag *)
Lemma run_relTsT c crit e lo hi : tscfg c crit -> tag_ok c -> years_ok e lo hi ->
  forall ops x v n, RelTsT c crit e lo n x v -> Forall basic_op ops -> Forall tick_ok ops ->
  (wnow (s_w x) + elapsed ops <= hi)%Z -> (N.of_nat (n + length ops) <= usize_max)%N ->
  let off := woff (s_w x) in let t := wnow (s_w x) in
  RelTsT c crit e lo (n + length ops) (fst (run x ops)) (t_run crit off v t ops)
  /\ woff (s_w (fst (run x ops))) = off /\ wnow (s_w (fst (run x ops))) = clock_run t ops
  /\ (forall i o, nth_error ops i = Some o -> forall b, (o = OWrite b \/ o = OPlain b) ->
        nth_error (snd (run x ops)) i
        = Some (ObsRes 0 (t_flag crit off (t_run crit off v t (firstn i ops)) (clock_run t (firstn i ops))))).
Proof.
  intros Hcfg T Y. induction ops as [|o r IH]; intros x v n R Hb Htk Hhi Hmax; cbn zeta.
  - cbn [run fst snd length t_run]. rewrite Nat.add_0_r.
    split; [exact R|]. split; [reflexivity|]. split; [reflexivity|]. intros i o H. destruct i; discriminate.
  - cbn [run]. inversion Hb as [|o' r' Ho Hr]; subst. inversion Htk as [|o' r' Hto Htr]; subst.
    cbn [elapsed length] in *. pose proof (elapsed_nonneg r Htr) as Er.
    assert (Hdt : (0 <= dt_of o)%Z) by (destruct o; cbn [dt_of tick_ok] in *; lia).
    pose proof (step_relTsT c crit e lo hi n x v o Hcfg T Y R Ho Hto ltac:(lia) ltac:(lia)) as S. destruct (step x o) as [x1 ob] eqn:Est.
    destruct S as [R1 [O1 [N1 F1]]].
    assert (Hhi1 : (wnow (s_w x1) + elapsed r <= hi)%Z) by (rewrite N1, clock_dt; lia).
    specialize (IH x1 _ (S n) R1 Hr Htr Hhi1 ltac:(lia)). cbn zeta in IH. rewrite O1, N1 in IH.
    destruct (run x1 r) as [x2 obs] eqn:Er'. cbn [fst snd] in *.
    replace (n + S (length r)) with (S n + length r) by lia.
    destruct IH as [IH1 [IH2 [IH3 IH4]]].
    split; [exact IH1|]. split; [exact IH2|]. split; [exact IH3|].
    intros i o0 Hi b Hw. destruct i as [|i].
    + cbn in Hi. injection Hi as <-. cbn [nth_error firstn t_run clock_run fold_left]. f_equal. exact (F1 b Hw).
    + cbn [nth_error firstn t_run clock_run fold_left] in *. exact (IH4 i o0 Hi b Hw).
Qed.

(* ------------------------------------------------------------------ stop: what the reader finds, with the keys' seconds *)
Lemma stop_relTsT c crit e lo n x v : tscfg c crit -> RelTsT c crit e lo n x v ->
  let '(x', _) := step x OStop in
  match v with
  | None => names (wfs (s_w x')) = []
  | Some (cl, (st, cu)) =>
    exists keys, ts_view c e (wfs (s_w x')) keys (List.map snd cl) cu /\ keys_ok keys
                 /\ (forall k, In k keys -> (lo <= fst k <= st)%Z) /\ (lo <= st <= wnow (s_w x))%Z
                 /\ List.map fst keys = List.map fst cl
  end.
Proof.
  intros Hcfg R0. rewrite (step_sync_relTsT c crit e lo n x v OStop Hcfg R0). destruct R0 as [Ht [Ha R]].
  destruct v as [[cl [st cu]]|].
  - destruct R as [keys [wr [Es [[I _] [V [_ Kf]]]]]].
    pose proof (stop_view_ts c e lo x wr keys (List.map snd cl) st _ Es I) as S. rewrite V in S. destruct (sync_step x OStop) as [x' ob].
    exists keys. split; [exact S|]. split; [exact (ti_keys _ _ _ _ _ _ _ _ I)|].
    split; [exact (ti_range _ _ _ _ _ _ _ _ I)|]. split; [exact (ti_ts _ _ _ _ _ _ _ _ I) | exact Kf].
  - destruct R as [Es [Q [Hn Hi]]]. cbn [sync_step]. rewrite Es. cbn [new_flw f_poisoned drop_state shutdown_state f_inner s_w]. exact Hn.
Qed.

(* ------------------------------------------------------------------ the view of a whole run *)
Definition ts_final (c : config) (t0 off : Z) (ops : list op) : fs :=
  wfs (s_w (fst (run (sys0 t0 off) (OStart c :: ops ++ [OStop])))).

Lemma run_view_ts_t c crit t0 off ops :
  tscfg c crit -> tag_ok c -> Forall basic_op ops -> Forall tick_ok ops ->
  (0 <= t0 + ts_e c off)%Z -> (t0 + elapsed ops + ts_e c off < sec_max)%Z -> (N.of_nat (length ops) <= usize_max)%N ->
  exists x0 ob0, step (sys0 t0 off) (OStart c) = (x0, ob0) /\
    match t_run crit off None t0 ops with
    | None => names (ts_final c t0 off ops) = []
    | Some (cl, (st, cu)) =>
      exists keys, ts_view c (ts_e c off) (ts_final c t0 off ops) keys (List.map snd cl) cu /\ keys_ok keys
                   /\ (forall k, In k keys -> (t0 <= fst k <= st)%Z) /\ (t0 <= st <= t0 + elapsed ops)%Z
                   /\ List.map fst keys = List.map fst cl
    end
    /\ (forall i o, nth_error ops i = Some o -> forall b, (o = OWrite b \/ o = OPlain b) ->
          nth_error (snd (run x0 ops)) i
          = Some (ObsRes 0 (t_flag crit off (t_run crit off None t0 (firstn i ops)) (clock_run t0 (firstn i ops))))).
Proof.
  intros Hcfg T Hb Htk Hlo Hhi Hmax. unfold ts_final. cbn [run]. destruct (step (sys0 t0 off) (OStart c)) as [x0 ob0] eqn:E0.
  exists x0, ob0. split; [reflexivity|].
  pose proof (start_relTsT c crit t0 off) as R0. pose proof (start_clock c t0 off) as [N0 O0].
  rewrite E0 in R0, N0, O0. cbn [fst] in R0, N0, O0.
  assert (Y : years_ok (ts_e c off) t0 (t0 + elapsed ops)) by (split; assumption).
  rewrite run_app.
  pose proof (run_relTsT c crit _ _ _ Hcfg T Y ops x0 None 0 R0 Hb Htk ltac:(lia) ltac:(cbn [Nat.add]; exact Hmax)) as [R1 [O1 [W1 F1]]].
  rewrite N0, O0 in *.
  destruct (run x0 ops) as [x1 obs1]. cbn [fst snd] in *.
  pose proof (stop_relTsT c crit _ _ _ x1 _ Hcfg R1) as S. cbn [run]. destruct (step x1 OStop) as [x2 ob2]. cbn [fst].
  split; [|exact F1].
  destruct (t_run crit off None t0 ops) as [[cl [st cu]]|]; [|exact S].
  destruct S as [keys [V [K [Rg [Rs Kf]]]]]. exists keys.
  split; [exact V|]. split; [exact K|]. split; [exact Rg|]. split; [|exact Kf].
  rewrite W1, clock_run_elapsed in Rs. exact Rs.
Qed.

(* ------------------------------------------------------------------ 1. the rotation flags *)
(* The flag observed for the i-th operation, a write at clock value t = t0 + the ticks before it, is the oracle's decision
   `rotate_due` on the state before it: the start instant and the content (disk + buffer) of rCURRENT, which is the last file of
   the oracle's partition of the history so far.  No file yet: no rotation.  The period is taken in LOCAL time (offset off)
   whether or not use_utc is set (use_utc concerns the text of the time stamp in the name only). *)
Theorem timestamps_age_flags c crit t0 off ops i o b :
  tscfg c crit -> tag_ok c -> Forall basic_op ops -> Forall tick_ok ops ->
  (0 <= t0 + ts_e c off)%Z -> (t0 + elapsed ops + ts_e c off < sec_max)%Z -> (N.of_nat (length ops) <= usize_max)%N ->
  nth_error ops i = Some o -> (o = OWrite b \/ o = OPlain b) ->
  nth_error (snd (run (sys0 t0 off) (OStart c :: ops))) (S i)
  = Some (ObsRes 0
      match last_opt (tpartition (age_of crit) (lim_of crit) off [] None (titems t0 (firstn i ops))) with
      | None => false
      | Some (start, content) => rotate_due (age_of crit) (lim_of crit) off start content (clock_run t0 (firstn i ops))
      end).
Proof.
  intros Hcfg T Hb Htk Hlo Hhi Hmax Hi Ho.
  destruct (run_view_ts_t c crit t0 off ops Hcfg T Hb Htk Hlo Hhi Hmax) as [x0 [ob0 [E0 [_ Hr]]]].
  cbn [run]. rewrite E0. destruct (run x0 ops) as [x1 obs1]. cbn [snd nth_error] in *. rewrite (Hr i o Hi b Ho). do 2 f_equal.
  pose proof (t_run_partition crit off (firstn i ops) None t0) as P. cbn [tcl tcu] in P. rewrite <- P, tfiles_last.
  unfold t_flag, tcu, due, age_of, lim_of. destruct (t_run crit off None t0 (firstn i ops)) as [[cl [st cu]]|]; reflexivity.
Qed.
Print Assumptions timestamps_age_flags.

(* the same for the pure age criterion, the decision spelled out: a write rotates exactly when it comes in another period
   than the one in which rCURRENT was started *)
Corollary timestamps_age_flags_age c a t0 off ops i o b :
  tscfg c (CAge a) -> tag_ok c -> Forall basic_op ops -> Forall tick_ok ops ->
  (0 <= t0 + ts_e c off)%Z -> (t0 + elapsed ops + ts_e c off < sec_max)%Z -> (N.of_nat (length ops) <= usize_max)%N ->
  nth_error ops i = Some o -> (o = OWrite b \/ o = OPlain b) ->
  nth_error (snd (run (sys0 t0 off) (OStart c :: ops))) (S i)
  = Some (ObsRes 0
      match last_opt (tpartition (Some a) None off [] None (titems t0 (firstn i ops))) with
      | None => false
      | Some (start, _) => negb (period_of a (start + off) =? period_of a (clock_run t0 (firstn i ops) + off))%Z
      end).
Proof.
  intros Hcfg T Hb Htk Hlo Hhi Hmax Hi Ho. rewrite (timestamps_age_flags c (CAge a) t0 off ops i o b Hcfg T Hb Htk Hlo Hhi Hmax Hi Ho).
  do 2 f_equal. cbn [age_of lim_of crit_parts fst snd]. destruct (last_opt _) as [[st cu]|]; [|reflexivity].
  unfold rotate_due. apply Bool.orb_false_r.
Qed.

Corollary timestamps_age_flags_age_or_size c a m t0 off ops i o b :
  tscfg c (CAgeOrSize a m) -> tag_ok c -> Forall basic_op ops -> Forall tick_ok ops ->
  (0 <= t0 + ts_e c off)%Z -> (t0 + elapsed ops + ts_e c off < sec_max)%Z -> (N.of_nat (length ops) <= usize_max)%N ->
  nth_error ops i = Some o -> (o = OWrite b \/ o = OPlain b) ->
  nth_error (snd (run (sys0 t0 off) (OStart c :: ops))) (S i)
  = Some (ObsRes 0
      match last_opt (tpartition (Some a) (Some m) off [] None (titems t0 (firstn i ops))) with
      | None => false
      | Some (start, content) =>
        negb (period_of a (start + off) =? period_of a (clock_run t0 (firstn i ops) + off))%Z
        || (m <? N.of_nat (length content))%N
      end).
Proof.
  intros Hcfg T Hb Htk Hlo Hhi Hmax Hi Ho. rewrite (timestamps_age_flags c (CAgeOrSize a m) t0 off ops i o b Hcfg T Hb Htk Hlo Hhi Hmax Hi Ho).
  reflexivity.
Qed.

(* ------------------------------------------------------------------ 2. the files *)
(* After the writer is stopped
   - either nothing was written: the oracle expects nothing, and the directory is empty;
   - or the oracle's files are  closed ++ [(st, cur)]  with: the directory consists exactly (ts_view) of the closed files, named
     by their keys r<second>[.restart-NNNN] in the order of their closing, with the contents of `closed`, and of rCURRENT with the
     content cur; and THE SECOND OF EACH KEY IS THE INSTANT AT WHICH THAT FILE WAS STARTED (List.map fst keys = List.map fst
     closed): the instant of its first record, or of the rotate() that created it - not the instant of its closing, which
     is the start instant of the next file.  rCURRENT was started at st. *)
Theorem timestamps_age_partition c crit t0 off ops :
  tscfg c crit -> tag_ok c -> Forall basic_op ops -> Forall tick_ok ops ->
  (0 <= t0 + ts_e c off)%Z -> (t0 + elapsed ops + ts_e c off < sec_max)%Z -> (N.of_nat (length ops) <= usize_max)%N ->
  let tf := tpartition (age_of crit) (lim_of crit) off [] None (titems t0 ops) in
  let f := wfs (s_w (fst (run (sys0 t0 off) (OStart c :: ops ++ [OStop])))) in
  (tf = [] /\ names f = [])
  \/ exists keys closed st cur,
       tf = closed ++ [(st, cur)]
       /\ ts_view c (ts_e c off) f keys (List.map snd closed) cur
       /\ List.map fst keys = List.map fst closed
       /\ keys_ok keys
       /\ (forall k, In k keys -> (t0 <= fst k <= st)%Z) /\ (t0 <= st <= t0 + elapsed ops)%Z.
Proof.
  intros Hcfg T Hb Htk Hlo Hhi Hmax tf f.
  destruct (run_view_ts_t c crit t0 off ops Hcfg T Hb Htk Hlo Hhi Hmax) as [x0 [ob0 [E0 [V _]]]].
  fold (ts_final c t0 off ops) in f. fold f in V.
  pose proof (t_run_partition crit off ops None t0) as P. cbn [tcl tcu] in P. fold tf in P.
  destruct (t_run crit off None t0 ops) as [[cl [st cu]]|]; cbn [tfiles] in P.
  - right. destruct V as [keys [V [K [Rg [Rs Kf]]]]]. exists keys, cl, st, cu. rewrite <- P. auto 10.
  - left. split; [symmetry; exact P | exact V].
Qed.
Print Assumptions timestamps_age_partition.

(* the reader (time stamp, then restart counter, rCURRENT last) finds these contents: the executable oracle of C09 accepts *)
Corollary timestamps_age_oracle c crit t0 off ops :
  tscfg c crit -> tag_ok c -> not_gz c -> Forall basic_op ops -> Forall tick_ok ops ->
  (0 <= t0 + ts_e c off)%Z -> (t0 + elapsed ops + ts_e c off < sec_max)%Z -> (N.of_nat (length ops) <= usize_max)%N ->
  oracle_C09_partition crit off None (titems t0 ops)
    (family_in_order c (snap_of (fst (run (sys0 t0 off) (OStart c :: ops ++ [OStop]))))) = true.
Proof.
  intros Hcfg T G Hb Htk Hlo Hhi Hmax.
  assert (E : family_in_order c (snap_of (fst (run (sys0 t0 off) (OStart c :: ops ++ [OStop]))))
              = List.map snd (tpartition (age_of crit) (lim_of crit) off [] None (titems t0 ops))).
  { destruct (timestamps_age_partition c crit t0 off ops Hcfg T Hb Htk Hlo Hhi Hmax) as [[Ef Hn]|[keys [cl [st [cu [Ef [V [_ [K [Rg Rs]]]]]]]]]];
      cbv zeta in *; rewrite Ef.
    - rewrite snap_of_list. unfold snap_list, dir_names. rewrite Hn. reflexivity.
    - assert (Y : years_ok (ts_e c off) t0 (t0 + elapsed ops)) by (split; assumption).
      assert (Rg' : forall k, In k keys -> (t0 <= fst k <= t0 + elapsed ops)%Z) by (intros k Ik; specialize (Rg k Ik); lia).
      pose proof (ts_reader_order c crit _ _ _ _ keys _ cu Hcfg G Y Rg' K V) as E. rewrite <- snap_of_list in E.
      rewrite E, map_app. reflexivity. }
  rewrite E. unfold oracle_C09_partition, age_of, lim_of. destruct (crit_parts crit) as [a lim]. apply list_beq2_refl.
Qed.
Print Assumptions timestamps_age_oracle.

(* ------------------------------------------------------------------ 3. the record-level view *)
(* whatever the criterion: a file not started by rotate() starts with, and at the instant of, its first record *)
Lemma r_step_starts crit off v t o :
  Forall starts_with_record (rfiles v) -> Forall starts_with_record (rfiles (r_step crit off v t o)).
Proof.
  intros H.
  assert (New : forall b, starts_with_record {| rstart := t; rtrig := false; rrecs := [(t, b)] |}).
  { intros b _. exists b, []. reflexivity. }
  assert (W : forall b, Forall starts_with_record (rfiles (r_step crit off v t (OWrite b)))).
  { intros b. cbn [r_step]. destruct v as [[cl cur]|]; [|constructor; [apply New | constructor]].
    cbn [rfiles] in H. apply Forall_app in H. destruct H as [Hcl Hcur].
    destruct (due crit off (rstart cur) (rbytes cur) t) eqn:D; cbn [rfiles].
    - apply Forall_app. split; [apply Forall_app; split; assumption|]. constructor; [apply New | constructor].
    - apply Forall_app. split; [exact Hcl|]. constructor; [|constructor].
      inversion Hcur as [|f l P2 _]; subst.
      intros Htr. cbn [rtrig rrecs rstart] in *. destruct (P2 Htr) as [b0 [rest E]]. rewrite E. exists b0, (rest ++ [(t, b)]). reflexivity. }
  destruct o; try exact H.
  - apply W.
  - exact (W b).
  - cbn [r_step]. destruct v as [[cl cur]|]; [|exact H]. cbn [rfiles] in *.
    apply Forall_app. split; [exact H|]. constructor; [|constructor]. intros Htr. discriminate Htr.
Qed.

Lemma r_run_starts crit off ops : forall v t,
  Forall starts_with_record (rfiles v) -> Forall starts_with_record (rfiles (r_run crit off v t ops)).
Proof. induction ops as [|o r IH]; intros v t H; [exact H|]. cbn [r_run]. apply IH. apply r_step_starts. exact H. Qed.

(* The record-level specification of NumAge.v (age_files: which record goes into which file, when each file was started and
   whether by rotate()) is independent of the naming.  For Timestamps naming the directory consists of these files - all but the
   last one closed, the last one rCURRENT -, and the second of the i-th key - the time stamp in the name of the i-th closed
   file - is the start instant of the i-th file. *)
Theorem timestamps_age_records c crit t0 off ops :
  tscfg c crit -> tag_ok c -> Forall basic_op ops -> Forall tick_ok ops ->
  (0 <= t0 + ts_e c off)%Z -> (t0 + elapsed ops + ts_e c off < sec_max)%Z -> (N.of_nat (length ops) <= usize_max)%N ->
  let fl := age_files crit off t0 ops in
  let f := wfs (s_w (fst (run (sys0 t0 off) (OStart c :: ops ++ [OStop])))) in
  ((fl = [] /\ names f = [])
   \/ exists keys cl cur,
        fl = cl ++ [cur]
        /\ ts_view c (ts_e c off) f keys (List.map rbytes cl) (rbytes cur)
        /\ List.map fst keys = List.map rstart cl
        /\ keys_ok keys
        /\ (forall k, In k keys -> (t0 <= fst k <= rstart cur)%Z) /\ (t0 <= rstart cur <= t0 + elapsed ops)%Z)
  /\ concat (List.map rrecs fl) = trecs t0 ops
  /\ (forall a, age_of crit = Some a -> forall g, In g fl -> one_period a off g)
  /\ (forall g, In g fl -> starts_with_record g)
  /\ trig_starts fl = trig_times false t0 ops
  /\ (forall i f1 f2, nth_error fl i = Some f1 -> nth_error fl (S i) = Some f2 -> was_due crit off f1 f2)
  /\ (forall i f1 f2, nth_error fl i = Some f1 -> nth_error fl (S i) = Some f2 -> start_le f1 f2).
Proof.
  intros Hcfg T Hb Htk Hlo Hhi Hmax fl f. unfold fl, age_files.
  split.
  { destruct (run_view_ts_t c crit t0 off ops Hcfg T Hb Htk Hlo Hhi Hmax) as [x0 [ob0 [E0 [V _]]]].
    fold (ts_final c t0 off ops) in f. fold f in V.
    change (@None (list tfile * tfile)) with (forget None) in V. rewrite <- r_run_forget in V.
    destruct (r_run crit off None t0 ops) as [[rcl rcur]|]; cbn [forget forget_file rfiles] in *.
    - right. destruct V as [keys [V [K [Rg [Rs Kf]]]]]. exists keys, rcl, rcur.
      rewrite !map_map in *. cbn [fst snd] in *.
      split; [reflexivity|]. split; [exact V|]. split; [exact Kf|]. split; [exact K|]. split; [exact Rg | exact Rs].
    - left. split; [reflexivity | exact V]. }
  split. { rewrite r_run_recs. reflexivity. }
  split. { intros a Ha g Hg. pose proof (r_run_files_ok crit a off ops Ha None t0 (Forall_nil _)) as X.
           rewrite Forall_forall in X. exact (proj1 (X g Hg)). }
  split. { apply Forall_forall. apply r_run_starts. constructor. }
  split. { rewrite r_run_trigs. reflexivity. }
  split. { apply chain_nth. apply r_run_chain. exact Logic.I. }
  apply chain_nth. apply r_run_mono; [exact Htk|]. split; exact Logic.I.
Qed.
Print Assumptions timestamps_age_records.

(* ------------------------------------------------------------------ 4. the names of the closed files *)
Lemma map_filter_eqb {A} (g : A -> Z) st (l : list A) :
  List.map g (filter (fun x => (g x =? st)%Z) l) = filter (fun z => (z =? st)%Z) (List.map g l).
Proof. induction l as [|x l IH]; [reflexivity|]. cbn [filter List.map]. destruct (g x =? st)%Z; cbn [List.map]; rewrite IH; reflexivity. Qed.

Lemma count_filter_fst t (l : list key) : count t l = length (filter (fun z => (z =? t)%Z) (List.map fst l)).
Proof.
  unfold count. induction l as [|k l IH]; [reflexivity|]. cbn [filter List.map].
  destruct (fst k =? t)%Z; cbn [length]; rewrite IH; reflexivity.
Qed.

Lemma nth_map_fst_eq {A} (g : A -> Z) (keys : list key) (l : list A) i x :
  List.map fst keys = List.map g l -> nth_error l i = Some x -> fst (nth i keys kd) = g x.
Proof.
  intros Kf Hi. assert (Hi' : i < length l) by (apply nth_error_Some; rewrite Hi; discriminate).
  pose proof (map_nth fst keys kd i) as X. rewrite Kf in X. etransitivity; [symmetry; exact X|].
  rewrite (nth_indep _ (fst kd) (g x)) by (rewrite map_length; exact Hi'). rewrite map_nth.
  rewrite (nth_error_nth l i _ Hi). reflexivity.
Qed.

(* THE TIME STAMP IN THE NAME OF A CLOSED FILE IS THE SECOND IN WHICH THE FILE WAS STARTED.
   Any criterion.  Let fi be the i-th file of the record-level specification and let it have a successor fnext (so fi has been
   closed: by the rotation that started fnext, at the instant rstart fnext).  Then the directory holds fi's bytes under the name
   whose time stamp is the text (local time, or UTC with use_utc: expected_ts_infix) of rstart fi - the instant at which
   rCURRENT was created for it, which is the instant of its first record unless rotate() started it - followed by
   .restart-NNNN when it is not the first file started in that second (NNNN + 1 = the number of earlier files started in the
   same second).  The instant of closing, rstart fnext, does not enter the name; it is not earlier than rstart fi. *)
Theorem timestamps_name_is_start c crit t0 off ops :
  tscfg c crit -> tag_ok c -> Forall basic_op ops -> Forall tick_ok ops ->
  (0 <= t0 + ts_e c off)%Z -> (t0 + elapsed ops + ts_e c off < sec_max)%Z -> (N.of_nat (length ops) <= usize_max)%N ->
  let fl := age_files crit off t0 ops in
  let f := wfs (s_w (fst (run (sys0 t0 off) (OStart c :: ops ++ [OStop])))) in
  forall i fi fnext, nth_error fl i = Some fi -> nth_error fl (S i) = Some fnext ->
    let pos := length (filter (fun g : rfile => Z.eqb (rstart g) (rstart fi)) (firstn i fl)) in
    (exists j, lookup f (nm c (expected_ts_infix (c_utc c) off std_fmt (rstart fi)
                               ++ match pos with O => [] | S k => restart_tag ++ pad_left 4 48%N (dec (N.of_nat k)) end)) = Some j
               /\ plain (inode f j) /\ content f j = rbytes fi)
    /\ (rtrig fi = false -> exists b rest, rrecs fi = (rstart fi, b) :: rest)
    /\ (rstart fi <= rstart fnext)%Z.
Proof.
  intros Hcfg T Hb Htk Hlo Hhi Hmax fl f i fi fnext Hi Hn pos.
  destruct (timestamps_age_records c crit t0 off ops Hcfg T Hb Htk Hlo Hhi Hmax) as [D [_ [_ [Hs [_ [_ Hle]]]]]].
  fold fl in D, Hs, Hle. fold f in D.
  split; [|split; [exact (Hs fi (nth_error_In _ _ Hi)) | exact (Hle i fi fnext Hi Hn)]].
  destruct D as [[Ef _]|[keys [cl [cur [Ef [V [Kf [K _]]]]]]]]; [rewrite Ef in Hi; destruct i; discriminate|].
  assert (Hil : i < length cl).
  { assert (X : S i < length fl) by (apply nth_error_Some; rewrite Hn; discriminate).
    rewrite Ef, app_length in X. cbn [length] in X. lia. }
  assert (Hic : nth_error cl i = Some fi) by (rewrite Ef, nth_error_app1 in Hi by exact Hil; exact Hi).
  assert (Efn : firstn i fl = firstn i cl).
  { rewrite Ef, firstn_app. replace (i - length cl) with 0 by lia. cbn [firstn]. apply app_nil_r. }
  destruct V as [Hl [Hcl _]]. rewrite map_length in Hl, Hcl.
  destruct (Hcl i Hil) as [j [Lj [Pj Cj]]].
  assert (Ed : nth i (List.map rbytes cl) [] = rbytes fi).
  { rewrite (nth_indep _ [] (rbytes fi)) by (rewrite map_length; exact Hil). rewrite map_nth.
    rewrite (nth_error_nth cl i _ Hic). reflexivity. }
  assert (Ek1 : fst (nth i keys kd) = rstart fi) by exact (nth_map_fst_eq rstart keys cl i fi Kf Hic).
  assert (Ek2 : snd (nth i keys kd) = pos).
  { rewrite (keys_position keys K i) by lia. rewrite Ek1, count_filter_fst. unfold pos. rewrite Efn.
    rewrite <- (map_length rstart (filter _ (firstn i cl))), (map_filter_eqb rstart), <- !firstn_map. do 3 f_equal. exact Kf. }
  exists j. split; [|split; [exact Pj | rewrite Cj; exact Ed]].
  rewrite <- Lj. f_equal. unfold kname. f_equal.
  destruct (nth i keys kd) as [t m]. cbn [fst snd] in Ek1, Ek2. subst t m. symmetry. apply infix_of_expected.
Qed.
Print Assumptions timestamps_name_is_start.

(* C09 for Timestamps naming with an age criterion, the headline: the time stamp in the name of a closed file is the instant at
   which the file was started, and it lies in the period (day / hour / minute / second of LOCAL time) of every record of the
   file; a file that was not started by rotate() starts with its first record, at that very instant; rCURRENT holds records of
   one period as well (that of its start) *)
Corollary timestamps_name_in_period c crit a t0 off ops :
  tscfg c crit -> tag_ok c -> Forall basic_op ops -> Forall tick_ok ops ->
  (0 <= t0 + ts_e c off)%Z -> (t0 + elapsed ops + ts_e c off < sec_max)%Z -> (N.of_nat (length ops) <= usize_max)%N ->
  age_of crit = Some a ->
  let fl := age_files crit off t0 ops in
  let f := wfs (s_w (fst (run (sys0 t0 off) (OStart c :: ops ++ [OStop])))) in
  (fl = [] /\ names f = [])
  \/ exists keys cl cur,
       fl = cl ++ [cur]
       /\ ts_view c (ts_e c off) f keys (List.map rbytes cl) (rbytes cur)
       /\ keys_ok keys
       /\ (forall i g, nth_error cl i = Some g ->
             fst (nth i keys kd) = rstart g
             /\ (forall t b, In (t, b) (rrecs g) -> period_of a (t + off) = period_of a (fst (nth i keys kd) + off))
             /\ (rtrig g = false -> exists b rest, rrecs g = (fst (nth i keys kd), b) :: rest))
       /\ (forall t b, In (t, b) (rrecs cur) -> period_of a (t + off) = period_of a (rstart cur + off)).
Proof.
  intros Hcfg T Hb Htk Hlo Hhi Hmax Ha fl f.
  destruct (timestamps_age_records c crit t0 off ops Hcfg T Hb Htk Hlo Hhi Hmax) as [D [_ [Hp [Hs _]]]].
  fold fl in D, Hp, Hs. fold f in D. specialize (Hp a Ha).
  destruct D as [D|[keys [cl [cur [Ef [V [Kf [K _]]]]]]]]; [left; exact D | right].
  exists keys, cl, cur. split; [exact Ef|]. split; [exact V|]. split; [exact K|].
  split.
  - intros i g Hi. assert (Ig : In g fl) by (rewrite Ef; apply in_or_app; left; exact (nth_error_In _ _ Hi)).
    rewrite (nth_map_fst_eq rstart keys cl i g Kf Hi). split; [reflexivity|]. split; [exact (Hp g Ig) | exact (Hs g Ig)].
  - apply Hp. rewrite Ef. apply in_or_app. right. left. reflexivity.
Qed.
Print Assumptions timestamps_name_in_period.

(* ------------------------------------------------------------------ examples (non-vacuity) *)
Import String.StringSyntax.
Open Scope string_scope.

(* Age::Minute, the history NumAge.minute_ops: the writer is started 59 s before the full minute, a record every 30 s -
   two records in minute 0, two in minute 1, one in minute 2 -, then rotate() and one more record in minute 2 *)
Definition tsa_c : config := ext_cfg (ex_sp "log") false (CAge AMinute) (Some 8%nat) false.
Lemma tsa_c_ok : tscfg tsa_c (CAge AMinute).
Proof. apply ext_cfg_ok. reflexivity. Qed.
Lemma tsa_c_tag_ok : tag_ok tsa_c.
Proof. apply tag_free_ok. split; vm_compute; reflexivity. Qed.
Lemma tsa_c_not_gz : not_gz tsa_c.
Proof. vm_compute. reflexivity. Qed.

(* the directory that the model computes, the flags, and what the oracle expects.  "ab" was started in second 1 and closed in
   second 61 (by the write of "c"): its name carries 00-00-01; "cd" was started in second 61 and closed in second 121: 00-01-01;
   "e" was started in second 121 and closed by rotate() in the same second: 00-02-01; "f" is in rCURRENT *)
Example ts_age_minute_dir :
  snap_of (fst (run (sys0 1 0) (OStart tsa_c :: minute_ops ++ [OStop])))
  = [ (bs "app_r1970-01-01_00-00-01.log", 0%N, bs "ab");
      (bs "app_r1970-01-01_00-01-01.log", 0%N, bs "cd");
      (bs "app_r1970-01-01_00-02-01.log", 0%N, bs "e");
      (bs "app_rCURRENT.log", 0%N, bs "f") ]
  /\ List.map rot_of (snd (run (sys0 1 0) (OStart tsa_c :: minute_ops)))
     = [false; false; false; false; false; true; false; false; false; false; true; false; false]
  /\ tpartition (Some AMinute) None 0 [] None (titems 1 minute_ops) = [(1%Z, bs "ab"); (61%Z, bs "cd"); (121%Z, bs "e"); (121%Z, bs "f")].
Proof. repeat split; vm_compute; reflexivity. Qed.

(* the theorems apply: their hypotheses can be met *)
Example ts_age_partition_instance :
  exists keys,
    ts_view tsa_c 0 (wfs (s_w (fst (run (sys0 1 0) (OStart tsa_c :: minute_ops ++ [OStop]))))) keys [bs "ab"; bs "cd"; bs "e"] (bs "f")
    /\ List.map fst keys = [1%Z; 61%Z; 121%Z]
    /\ keys_ok keys.
Proof.
  destruct (timestamps_age_partition tsa_c (CAge AMinute) 1 0 minute_ops tsa_c_ok tsa_c_tag_ok minute_ops_basic minute_ops_ticks)
    as [[Ef _]|[keys [cl [st [cu [Ef [V [Kf [K _]]]]]]]]].
  - change (0 <= 1)%Z. lia.
  - change (121 < sec_max)%Z. unfold sec_max. lia.
  - vm_compute. discriminate.
  - vm_compute in Ef. discriminate Ef.
  - cbv zeta in *.
    assert (E : tpartition (age_of (CAge AMinute)) (lim_of (CAge AMinute)) 0 [] None (titems 1 minute_ops)
                = [(1%Z, bs "ab"); (61%Z, bs "cd"); (121%Z, bs "e")] ++ [(121%Z, bs "f")]) by (vm_compute; reflexivity).
    rewrite E in Ef. apply app_inj_tail in Ef. destruct Ef as [<- Ec]. injection Ec as <- <-.
    exists keys. split; [exact V|]. split; [exact Kf | exact K].
Qed.

Example ts_age_flag_instance :
  nth_error (snd (run (sys0 1 0) (OStart tsa_c :: minute_ops))) 5 = Some (ObsRes 0 true).
Proof.
  rewrite (timestamps_age_flags_age tsa_c AMinute 1 0 minute_ops 4 (OWrite (bs "c")) (bs "c") tsa_c_ok tsa_c_tag_ok
             minute_ops_basic minute_ops_ticks).
  - vm_compute. reflexivity.
  - change (0 <= 1)%Z. lia.
  - change (121 < sec_max)%Z. unfold sec_max. lia.
  - vm_compute. discriminate.
  - reflexivity.
  - left. reflexivity.
Qed.

Example ts_age_oracle_instance :
  oracle_C09_partition (CAge AMinute) 0 None (titems 1 minute_ops)
    (family_in_order tsa_c (snap_of (fst (run (sys0 1 0) (OStart tsa_c :: minute_ops ++ [OStop]))))) = true.
Proof.
  apply (timestamps_age_oracle tsa_c (CAge AMinute) 1 0 minute_ops tsa_c_ok tsa_c_tag_ok tsa_c_not_gz minute_ops_basic minute_ops_ticks).
  - change (0 <= 1)%Z. lia.
  - change (121 < sec_max)%Z. unfold sec_max. lia.
  - vm_compute. discriminate.
Qed.

(* timestamps_name_is_start for the first file of this history: started in second 1 (its first record), closed in second 61 -
   it is found under the time stamp of second 1 *)
Example ts_name_is_start_instance :
  exists j, lookup (wfs (s_w (fst (run (sys0 1 0) (OStart tsa_c :: minute_ops ++ [OStop]))))) (bs "app_r1970-01-01_00-00-01.log") = Some j
            /\ plain (inode (wfs (s_w (fst (run (sys0 1 0) (OStart tsa_c :: minute_ops ++ [OStop]))))) j)
            /\ content (wfs (s_w (fst (run (sys0 1 0) (OStart tsa_c :: minute_ops ++ [OStop]))))) j = bs "ab".
Proof.
  pose proof (timestamps_name_is_start tsa_c (CAge AMinute) 1 0 minute_ops tsa_c_ok tsa_c_tag_ok minute_ops_basic minute_ops_ticks) as H.
  cbv zeta in H.
  specialize (H ltac:(change (0 <= 1)%Z; lia) ltac:(change (121 < sec_max)%Z; unfold sec_max; lia) ltac:(vm_compute; discriminate)
                0 {| rstart := 1; rtrig := false; rrecs := [(1%Z, bs "a"); (31%Z, bs "b")] |}
                {| rstart := 61; rtrig := false; rrecs := [(61%Z, bs "c"); (91%Z, bs "d")] |}
                ltac:(vm_compute; reflexivity) ltac:(vm_compute; reflexivity)).
  destruct H as [[j [L [P C]]] [_ Hle]]. exists j.
  split; [|split; [exact P | exact C]].
  rewrite <- L. f_equal.
Qed.

(* age-or-size, limit 1 byte: "ab" is closed by the write of "c" (size) in second 1; "cd" is started in second 1 as well and
   closed by the write of "e" in second 61 (another minute): its name carries the second of its START, 1 (hence the restart
   counter), not the second of its closing, 61 *)
Example ts_age_or_size_dir :
  snap_of (fst (run (sys0 1 0) (OStart (ext_cfg (ex_sp "log") false (CAgeOrSize AMinute 1) (Some 8%nat) false) ::
                                [OWrite (bs "ab"); OWrite (bs "c"); OWrite (bs "d"); OTick 60; OWrite (bs "e"); OStop])))
  = [ (bs "app_r1970-01-01_00-00-01.log", 0%N, bs "ab");
      (bs "app_r1970-01-01_00-00-01.restart-0000.log", 0%N, bs "cd");
      (bs "app_rCURRENT.log", 0%N, bs "e") ].
Proof. vm_compute. reflexivity. Qed.

(* use_utc with a zone offset that is not a multiple of the period (cf. TsdAge.tsd_age_utc_names_local_periods): the decision
   compares LOCAL periods, the name shows the start instant in UTC *)
Example ts_age_utc_names_local_periods :
  snap_of (fst (run (sys0 1700000000 1800) (OStart (ext_cfg (ex_sp "log") true (CAge AHour) None true) :: tsda_ops2 ++ [OStop])))
  = [ (bs "app_r2023-11-14_22-13-20.log", 0%N, bs "a"); (bs "app_rCURRENT.log", 0%N, bs "bc") ]
  /\ tpartition (Some AHour) None 1800 [] None (titems 1700000000 tsda_ops2) = [(1700000000%Z, bs "a"); (1700001800%Z, bs "bc")].
Proof. split; vm_compute; reflexivity. Qed.

(* outside the scope of the theorems (which start from the empty directory): a writer that is restarted finds an rCURRENT
   from an earlier period.  With append it continues rCURRENT: the time stamp of the naming state and the roll state's
   `created` are both the file's creation time read from the file system (creation_ts_of_current, roll_new: birth_or_now), not
   the instant of the restart - so the first write of the second writer, in minute 1, closes the file of minute 0 under the
   name of ITS start, second 1.  Without append the initialisation itself rotates rCURRENT, under the same name.  One period per
   file and "the name is the start" hold in both cases. *)
Example ts_restart_rcurrent_birth_time :
  snap_of (fst (run (sys0 1 0) [OStart (ext_cfg (ex_sp "log") true (CAge AMinute) None false); OWrite (bs "a"); OStop; OTick 60;
                                OStart (ext_cfg (ex_sp "log") true (CAge AMinute) None false); OWrite (bs "b"); OTick 1; OWrite (bs "c"); OStop]))
  = [ (bs "app_r1970-01-01_00-00-01.log", 0%N, bs "a"); (bs "app_rCURRENT.log", 0%N, bs "bc") ]
  /\ snap_of (fst (run (sys0 1 0) [OStart (ext_cfg (ex_sp "log") false (CAge AMinute) None false); OWrite (bs "a"); OStop; OTick 60;
                                   OStart (ext_cfg (ex_sp "log") false (CAge AMinute) None false); OWrite (bs "b"); OTick 1; OWrite (bs "c"); OStop]))
     = [ (bs "app_r1970-01-01_00-00-01.log", 0%N, bs "a"); (bs "app_rCURRENT.log", 0%N, bs "bc") ].
Proof. split; vm_compute; reflexivity. Qed.

(* THE HYPOTHESIS tick_ok IS NEEDED for this naming (unlike Numbers and NumbersDirect): when the clock is set back, the
   rotation decisions are still the oracle's ("another period": flags false, true, true) and every file still holds the
   records of one period under the name of its start - but the names no longer sort in the order of writing: "a" (started
   in second 61) is closed first, "b" (started in second 1) second, and the reader, who sorts by time stamp, finds b, a, c.
   The oracle, applied to what the reader finds, rejects; keys_ok (seconds non-decreasing) does not hold. *)
Definition tsa_back_ops : list op := [OWrite (bs "a"); OTick (-60); OWrite (bs "b"); OTick 60; OWrite (bs "c")].
Example ts_age_clock_set_back :
  snap_of (fst (run (sys0 61 0) (OStart tsa_c :: tsa_back_ops ++ [OStop])))
  = [ (bs "app_r1970-01-01_00-00-01.log", 0%N, bs "b");
      (bs "app_r1970-01-01_00-01-01.log", 0%N, bs "a");
      (bs "app_rCURRENT.log", 0%N, bs "c") ]
  /\ List.map rot_of (snd (run (sys0 61 0) (OStart tsa_c :: tsa_back_ops))) = [false; false; false; true; false; true]
  /\ tpartition (Some AMinute) None 0 [] None (titems 61 tsa_back_ops) = [(61%Z, bs "a"); (1%Z, bs "b"); (61%Z, bs "c")]
  /\ family_in_order tsa_c (snap_of (fst (run (sys0 61 0) (OStart tsa_c :: tsa_back_ops ++ [OStop])))) = [bs "b"; bs "a"; bs "c"]
  /\ oracle_C09_partition (CAge AMinute) 0 None (titems 61 tsa_back_ops)
       (family_in_order tsa_c (snap_of (fst (run (sys0 61 0) (OStart tsa_c :: tsa_back_ops ++ [OStop]))))) = false
  /\ ~ Forall tick_ok tsa_back_ops.
Proof.
  repeat split; try (vm_compute; reflexivity).
  intros H. inversion H as [|o1 r1 _ H1]; subst. inversion H1 as [|o2 r2 H2 _]; subst. cbn [tick_ok] in H2. lia.
Qed.
