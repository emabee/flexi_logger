(* TimestampsDirect naming with a size criterion: the greedy partition over SEQUENCES of runs on one directory (C08 for every
   start state that earlier writers can leave behind).
   - with append the newest file found - by time stamp and restart counter - is continued under its old name, and its
     content counts for the limit from the first write on;
   - without append a new file is started at the first write and the run partitions as from a fresh start;
   - a run that never writes leaves the directory as it is.
   The concrete side is the one of TsdRestart.v (IdleTd, PreTd, ActTd), strengthened by the roll state (SizeSt: a size
   criterion stays a size criterion); the abstract side (init_view, g_step, gs_run, files_after, cur_before, runs_files) is
   the one of NumRestart.v / NumAppendPartition.v: the reader's view without the keys. *)
Require Import FL.Base.Bytes FL.Base.PathName FL.Fs.Fs FL.Time.TsFormat
  FL.Names.FileSpec FL.Names.NamesFacts FL.Names.SortFacts FL.Names.FamilyFacts FL.Flw.Model FL.Flw.ModelFacts
  FL.Flw.NumInv FL.Flw.Run FL.Flw.NumRun FL.Oracles.O_Flw FL.Flw.NumTheorems FL.Flw.NumListing FL.Flw.NumRestart
  FL.Flw.NumAppendPartition
  FL.Flw.TsTime FL.Flw.TsNames FL.Flw.TsInv FL.Flw.TsRun FL.Flw.TsTheorems FL.Flw.TsRestartInv FL.Flw.TsRestart
  FL.Flw.TsdInv FL.Flw.TsdRun FL.Flw.TsdTheorems FL.Flw.TsPartition FL.Flw.TsdRestartInv FL.Flw.TsdRestart.
Import String.StringSyntax.
Open Scope nat_scope.

(* ================================================================== the roll state *)
Definition roll_of_sys (x : sys) : option roll_state :=
  match s_flw x with
  | Some s => match f_inner s with Active (Some rs) _ _ => Some (rs_roll rs) | _ => None end
  | None => None
  end.
(* the writer has a size criterion with the limit m *)
Definition SizeSt (m : N) (x : sys) : Prop := exists k, roll_of_sys x = Some (RSize m k).

(* the reader's view without the keys *)
Definition vw (d : dview) : aview := match d with Some (_, cl, cu) => Some (cl, cu) | None => None end.

Lemma files_of_vw d : files_of (vw d) = filesD d.
Proof. destruct d as [[[ks cl] cu]|]; reflexivity. Qed.

(* ================================================================== one operation of a writer that has written *)
Lemma act_step_tz c m e off lo hi n x keys closed cur o :
  tsdcfg c (CSize m) -> tag_ok c -> years_ok e lo hi ->
  ActTd c e off lo n x (Some (keys, closed, cur)) -> SizeSt m x -> basic_op o -> tick_ok o ->
  (wnow (s_w x) <= hi)%Z -> (N.of_nat (S n) <= usize_max)%N ->
  exists keys' cl' cu',
    a_step (Some (closed, cur)) o (rot_of (snd (step x o))) = Some (cl', cu')
    /\ ActTd c e off lo (S n) (fst (step x o)) (Some (keys', cl', cu')) /\ SizeSt m (fst (step x o))
    /\ wnow (s_w (fst (step x o))) = (wnow (s_w x) + dt_of o)%Z
    /\ (forall b, (o = OWrite b \/ o = OPlain b) -> snd (step x o) = ObsRes 0 (m <? N.of_nat (length cur))%N).
Proof.
  intros Hcfg T Y A [k0 Hk0] Hb Htk Hhi Hmax.
  destruct A as [[Ht [Ha [Q [Ho Hw]]]] [wr [roll [Es [I [V [Hn Z]]]]]]].
  unfold roll_of_sys in Hk0. rewrite Es in Hk0. cbn [st_tsd f_inner mk_rs rs_roll] in Hk0. injection Hk0 as ->.
  cbn [roll_size_ok] in Z. subst k0.
  assert (Hk : (N.of_nat (length keys) <= usize_max)%N) by (rewrite (td_len _ _ _ _ _ _ _ I); lia).
  set (roll := RSize m (N.of_nat (length cur))) in *.
  assert (A : ActD c e lo (st_tsd c e (nth (length closed) keys kd) roll wr) (s_w x) (keys, closed, cur, roll)).
  { exists wr. split; [reflexivity|]. split; [exact I | exact V]. }
  destruct (act_step_tsd c (CSize m) e lo hi x _ keys closed cur roll o Hcfg T Y Es A Ht Hb Htk Hhi Hk)
    as [x' [s' [E [Es' [A' [Ht' [N' [O' Ac']]]]]]]]. rewrite E. cbn [fst snd].
  pose proof (d_next_view (s_w x) keys closed cur roll o Hb) as D.
  destruct (d_next (s_w x) (keys, closed, cur, roll) o) as [[[keys' closed'] cur'] roll'].
  destruct D as [Ea [Hl [Z' RS']]]. destruct (RS' m _ eq_refl) as [k' ->]. destruct A' as [wr' [-> [I' V']]].
  exists keys', closed', cur'. split; [exact Ea|].
  split; [|split; [exists k'; unfold roll_of_sys; rewrite Es'; reflexivity|]; split; [exact N'|]].
  - split.
    { split; [exact Ht'|]. split; [rewrite Ac'; exact Ha|]. split; [exact (td_quiet _ _ _ _ _ _ _ I')|].
      split; [exact (td_off _ _ _ _ _ _ _ I') | rewrite O'; exact Hw]. }
    exists wr', (RSize m k'). split; [exact Es'|]. split; [exact I'|]. split; [exact V'|]. split; [lia | exact (Z' eq_refl)].
  - intros b [-> | ->]; reflexivity.
Qed.

(* ================================================================== the first write of a writer *)
Lemma first_write_tz c m e off lo hi n x d b :
  tsdcfg c (CSize m) -> tag_ok c -> years_ok e lo hi -> aok c -> PreTd c e off lo n x d ->
  (wnow (s_w x) <= hi)%Z -> (N.of_nat (S n) <= usize_max)%N ->
  let rot := (m <? N.of_nat (length (snd (init_view c (vw d)))))%N in
  exists w' s' keys' cl' cu', write_buffer (new_flw c) (s_w x) b = (Ok tt, w', s', rot)
    /\ a_step (Some (init_view c (vw d))) (OWrite b) rot = Some (cl', cu')
    /\ ActTd c e off lo (S n) {| s_flw := Some s'; s_w := w'; s_tl := []; s_dead := s_dead x |} (Some (keys', cl', cu'))
    /\ SizeSt m {| s_flw := Some s'; s_w := w'; s_tl := []; s_dead := s_dead x |}
    /\ wnow w' = wnow (s_w x).
Proof.
  intros Hcfg T Y Hao [E0 [Es [D Hn]]] Hhi Hmax rot. pose proof E0 as [Ht [Ha [Q [Ho Hw]]]].
  assert (IN : exists w1 wr1 keys1 closed1,
            initialize c (s_w x) = (Ok (Active (Some (mk_rs (NSTs (fst (nth (length closed1) keys1 kd)) None std_fmt)
                                                             (RSize m (N.of_nat (length (cur_view w1 wr1)))))) wr1
                                               (kname c e (nth (length closed1) keys1 kd))), w1)
            /\ TsdInv c e lo w1 wr1 keys1 closed1 /\ same_env (s_w x) w1
            /\ (closed1, cur_view w1 wr1) = init_view c (vw d)
            /\ length closed1 <= n).
  { destruct d as [[[keys closed] cur]|]; cbn [dir_tsd closedD vw init_view] in D, Hn |- *.
    - destruct D as [wr [I [Hp V]]]. pose proof (td_len _ _ _ _ _ _ _ I) as Hlen.
      destruct (initialize_view_tsd c (CSize m) e lo hi (s_w x) wr keys closed Hcfg T Y I Hp Hhi ltac:(lia) Hao)
        as [w1 [wr1 [st1 [keys1 [closed1 [Ei [I1 [S1 V1]]]]]]]].
      exists w1, wr1, keys1, closed1. split; [exact Ei|]. split; [exact I1|]. split; [exact S1|].
      rewrite V in V1. destruct (c_append c); injection V1 as -> -> ->.
      + split; [reflexivity | lia].
      + split; [reflexivity | rewrite app_length; cbn [length]; lia].
    - destruct D as [Hnm [Hin Hlo]].
      destruct (initialize_empty_tsd c (CSize m) e lo (s_w x) Hcfg Q Hnm Hin Ho Hlo) as [w1 [wr1 [roll1 [Ei [I1 [V1 [Z1 [S1 R1]]]]]]]].
      rewrite (R1 m eq_refl) in Ei.
      exists w1, wr1, [(wnow (s_w x), 0)], []. cbn [length nth fst]. rewrite V1. cbn [length].
      split; [exact Ei|]. split; [exact I1|]. split; [exact S1|]. split; [reflexivity | lia]. }
  destruct IN as [w1 [wr1 [keys1 [closed1 [Ei [I1 [S1 [V1 L1]]]]]]]].
  assert (Hhi1 : (wnow w1 <= hi)%Z) by (rewrite (same_env_now _ _ S1); exact Hhi).
  pose proof (td_len _ _ _ _ _ _ _ I1) as Hlen1.
  unfold rot. rewrite <- V1. cbn [snd].
  set (roll1 := RSize m (N.of_nat (length (cur_view w1 wr1)))) in *.
  assert (A1 : ActD c e lo (st_tsd c e (nth (length closed1) keys1 kd) roll1 wr1) w1 (keys1, closed1, cur_view w1 wr1, roll1)).
  { exists wr1. split; [reflexivity|]. split; [exact I1 | reflexivity]. }
  destruct (act_write_tsd c (CSize m) e lo hi _ w1 keys1 closed1 _ roll1 b Hcfg T Y A1 Hhi1 ltac:(lia)) as [w' [s' [E [S' A']]]].
  pose proof (d_next_view w1 keys1 closed1 (cur_view w1 wr1) roll1 (OWrite b) Logic.I) as D1.
  destruct (d_next w1 (keys1, closed1, cur_view w1 wr1, roll1) (OWrite b)) as [[[keys' closed'] cur'] roll'].
  destruct D1 as [Ea [Hl [Z' RS']]]. destruct (RS' m _ eq_refl) as [k' ->]. destruct A' as [wr' [-> [I' V']]].
  eexists w', _, keys', closed', cur'.
  split. { rewrite (write_buffer_init c (s_w x) b _ _ _ w1 Ei). exact E. }
  assert (S2 : same_env (s_w x) w') by (eapply same_env_trans; eassumption).
  split; [exact Ea|]. split; [|split; [eexists; reflexivity | exact (same_env_now _ _ S2)]].
  split; [apply (envTd_env c e off x _ E0); [reflexivity | exact S2]|].
  exists wr', (RSize m k'). cbn [s_flw s_w].
  split; [reflexivity|]. split; [exact I'|]. split; [exact V'|]. split; [lia | exact (Z' eq_refl)].
Qed.

(* ================================================================== one run *)
Definition GRelTz (c : config) (m : N) (e off lo : Z) (n : nat) (x : sys) (d0 : dview) (a : aview) : Prop :=
  match a with
  | None => PreTd c e off lo n x d0
  | Some (cl, cu) => exists keys, ActTd c e off lo n x (Some (keys, cl, cu)) /\ SizeSt m x
  end.

Lemma gstep_tz c m e off lo hi n x d0 a o :
  tsdcfg c (CSize m) -> tag_ok c -> years_ok e lo hi -> aok c -> GRelTz c m e off lo n x d0 a -> basic_op o -> tick_ok o ->
  (wnow (s_w x) <= hi)%Z -> (N.of_nat (S n) <= usize_max)%N ->
  GRelTz c m e off lo (S n) (fst (step x o)) d0 (g_step c (vw d0) a o (rot_of (snd (step x o))))
  /\ wnow (s_w (fst (step x o))) = (wnow (s_w x) + dt_of o)%Z
  /\ (forall b, (o = OWrite b \/ o = OPlain b) -> snd (step x o) = ObsRes 0 (m <? N.of_nat (length (gcur c (vw d0) a)))%N).
Proof.
  intros Hcfg T Y Hao G Hb Htk Hhi Hmax. destruct a as [[cl cu]|].
  - cbn [GRelTz g_step gcur] in *. destruct G as [keys [A Hz]].
    destruct (act_step_tz c m e off lo hi n x keys cl cu o Hcfg T Y A Hz Hb Htk Hhi Hmax) as [keys' [cl' [cu' [Ea [A' [Z' [W' C']]]]]]].
    rewrite Ea. split; [exists keys'; split; assumption|]. split; [exact W' | exact C'].
  - cbn [GRelTz g_step gcur] in *. pose proof G as [[Ht [Ha [Q [Ho Hw]]]] [Es [D Hn]]].
    rewrite (step_sync_tsd c (CSize m) x _ o Hcfg Es eq_refl).
    destruct o; try contradiction; cbn [sync_step dt_of].
    + (* OWrite *)
      destruct (first_write_tz c m e off lo hi n x d0 (s_tl x ++ b) Hcfg T Y Hao G Hhi Hmax) as [w' [s' [keys' [cl' [cu' [E [Ea [A' [Z' W']]]]]]]]].
      rewrite Es. cbn [new_flw f_poisoned]. fold (new_flw c). rewrite E. cbn [fst snd rot_of s_w].
      rewrite Ht in Ea. cbn [app] in Ea. rewrite Ea.
      split; [exists keys'; split; assumption|]. split; [lia|]. intros b0 _. reflexivity.
    + (* OPlain *)
      destruct (first_write_tz c m e off lo hi n x d0 b Hcfg T Y Hao G Hhi Hmax) as [w' [s' [keys' [cl' [cu' [E [Ea [A' [Z' W']]]]]]]]].
      rewrite Es. cbn [new_flw f_poisoned]. fold (new_flw c). rewrite E. cbn [fst snd rot_of s_w code_of]. rewrite Ht.
      change (a_step (Some (init_view c (vw d0))) (OPlain b)) with (a_step (Some (init_view c (vw d0))) (OWrite b)). rewrite Ea.
      split; [exists keys'; split; assumption|]. split; [lia|]. intros b0 _. reflexivity.
    + (* OFlush *)
      rewrite Es. cbn [new_flw f_poisoned flush_state f_inner fst snd s_w GRelTz].
      split; [|split; [lia | intros b [H|H]; discriminate]].
      split; [repeat split; try assumption; apply Q|]. split; [reflexivity|]. split; [exact D | lia].
    + (* OTrigger *)
      rewrite Es. cbn [new_flw f_poisoned f_cfg f_inner mount_next with_inner code_of fst snd s_w GRelTz].
      split; [|split; [lia | intros b [H|H]; discriminate]].
      split; [repeat split; try assumption; apply Q|]. split; [reflexivity|]. split; [exact D | lia].
    + (* OTick *)
      cbn [fst snd s_w set_now wnow tick_ok GRelTz] in *.
      split; [|split; [reflexivity | intros b [H|H]; discriminate]].
      split; [repeat split; try assumption; apply Q|]. split; [exact Es|]. split; [apply dir_tsd_tick; assumption | lia].
    + (* OSnap *)
      cbn [fst snd GRelTz].
      split; [|split; [lia | intros b [H|H]; discriminate]].
      split; [repeat split; try assumption; apply Q|]. split; [exact Es|]. split; [exact D | lia].
Qed.

Lemma grun_tz c m e off lo hi d0 : tsdcfg c (CSize m) -> tag_ok c -> years_ok e lo hi -> aok c ->
  forall ops x a n, GRelTz c m e off lo n x d0 a -> Forall basic_op ops -> Forall tick_ok ops ->
  (wnow (s_w x) + elapsed ops <= hi)%Z -> (N.of_nat (n + length ops) <= usize_max)%N ->
  GRelTz c m e off lo (n + length ops) (fst (run x ops)) d0 (gs_run m c (vw d0) a ops)
  /\ wnow (s_w (fst (run x ops))) = (wnow (s_w x) + elapsed ops)%Z
  /\ (forall i o, nth_error ops i = Some o -> forall b, (o = OWrite b \/ o = OPlain b) ->
        nth_error (snd (run x ops)) i
        = Some (ObsRes 0 (m <? N.of_nat (length (gcur c (vw d0) (gs_run m c (vw d0) a (firstn i ops)))))%N)).
Proof.
  intros Hcfg T Y Hao. induction ops as [|o r IH]; intros x a n G Hb Htk Hhi Hmax.
  - cbn [run fst snd length elapsed gs_run]. rewrite Nat.add_0_r. split; [exact G|]. split; [lia|].
    intros i o H. destruct i; discriminate.
  - cbn [run]. inversion Hb as [|o' r' Ho Hr]; subst. inversion Htk as [|o' r' Hto Htr]; subst.
    cbn [elapsed length] in *. pose proof (elapsed_nonneg r Htr) as Er.
    assert (Hdt : (0 <= dt_of o)%Z) by (destruct o; cbn [dt_of tick_ok] in *; lia).
    destruct (gstep_tz c m e off lo hi n x d0 a o Hcfg T Y Hao G Ho Hto ltac:(lia) ltac:(lia)) as [G1 [W1 C1]].
    destruct (step x o) as [x1 ob] eqn:Est. cbn [fst snd] in G1, W1, C1.
    assert (Erot : g_step c (vw d0) a o (rot_of ob) = g_step c (vw d0) a o (m <? N.of_nat (length (gcur c (vw d0) a)))%N).
    { destruct o; try (destruct a; reflexivity).
      - rewrite (C1 b (or_introl eq_refl)). reflexivity.
      - rewrite (C1 b (or_intror eq_refl)). reflexivity. }
    rewrite Erot in G1.
    destruct (IH x1 _ (S n) G1 Hr Htr ltac:(lia) ltac:(lia)) as [G2 [W2 C2]].
    destruct (run x1 r) as [x2 obs] eqn:Err. cbn [fst snd] in *.
    replace (n + S (length r)) with (S n + length r) by lia. cbn [gs_run].
    split; [exact G2|]. split; [lia|].
    intros i o0 Hi b Hw. destruct i as [|i].
    + cbn in Hi. injection Hi as <-. cbn [nth_error firstn gs_run]. f_equal. apply (C1 b Hw).
    + cbn [nth_error firstn gs_run] in *. apply (C2 i o0 Hi b Hw).
Qed.

Lemma grelTz_td c m e off lo n x d a : GRelTz c m e off lo n x d a ->
  exists a1, GRelTd c e off lo n x d a1 /\ vw (gviewD d a1) = gview (vw d) a.
Proof.
  destruct a as [[cl cu]|]; cbn [GRelTz].
  - intros [keys [A _]]. exists (Some (keys, cl, cu)). split; [exact A | reflexivity].
  - intros P. exists None. split; [exact P | reflexivity].
Qed.

(* ---- one whole run, after the clock has advanced by dt ---- *)
Lemma one_run_tz c m e off lo hi n x d dt ops :
  tsdcfg c (CSize m) -> tag_ok c -> years_ok e lo hi -> aok c -> IdleTd c e off lo n x d -> (0 <= dt)%Z ->
  Forall basic_op ops -> Forall tick_ok ops ->
  (wnow (s_w x) + elapsed (run_t dt c ops) <= hi)%Z -> (N.of_nat (n + length (run_t dt c ops)) <= usize_max)%N ->
  (exists d', IdleTd c e off lo (n + length (run_t dt c ops)) (fst (run x (run_t dt c ops))) d'
    /\ filesD d' = files_after (filesD d) (c_append c) m ops
    /\ wnow (s_w (fst (run x (run_t dt c ops)))) = (wnow (s_w x) + elapsed (run_t dt c ops))%Z)
  /\ (forall i o b, nth_error ops i = Some o -> (o = OWrite b \/ o = OPlain b) ->
        nth_error (snd (run x (OTick dt :: OStart c :: ops))) (S (S i))
        = Some (ObsRes 0 (m <? N.of_nat (length (cur_before m (start_of (filesD d) (c_append c)) (firstn i ops))))%N)).
Proof.
  intros Hcfg T Y Hao Id Hdt Hb Htk Hhi Hmax. unfold run_t in *.
  cbn [elapsed dt_of length] in Hhi, Hmax. rewrite elapsed_app in Hhi. rewrite app_length in Hmax. cbn [elapsed dt_of length] in Hhi, Hmax.
  pose proof (elapsed_nonneg ops Htk) as Eo.
  cbn [run].
  destruct (idle_tick_td c e off lo n x d dt Hdt Id) as [Id0 W0]. destruct (step x (OTick dt)) as [xa oba]. cbn [fst] in Id0, W0.
  pose proof (start_td c e off lo n xa d Id0) as P0. pose proof (start_now xa c) as W1.
  destruct (step xa (OStart c)) as [x0 ob0]. cbn [fst] in P0, W1.
  assert (G0 : GRelTz c m e off lo (S n) x0 d None) by exact P0.
  destruct (grun_tz c m e off lo hi d Hcfg T Y Hao ops x0 None (S n) G0 Hb Htk ltac:(lia) ltac:(lia)) as [G1 [W2 C1]].
  split.
  - pose proof (fst_run_app ops [OStop] x0) as RA.
    destruct (run x0 (ops ++ [OStop])) as [x2 obs2]. cbn [fst] in RA |- *.
    destruct (run x0 ops) as [x1 obs1]. cbn [fst] in RA, G1, W2.
    destruct (grelTz_td _ _ _ _ _ _ _ _ _ G1) as [a1 [G1' Ev]].
    destruct (stop_td c (CSize m) e off lo (S n + length ops) x1 d a1 Hcfg G1') as [Id2 W3].
    cbn [run] in RA. destruct (step x1 OStop) as [x2' ob2]. cbn [fst] in RA, Id2, W3. subst x2'.
    exists (gviewD d a1).
    split; [apply (idleTd_mono c e off lo (S n + length ops)); [cbn [length]; rewrite app_length; cbn [length]; lia | exact Id2]|].
    split; [|cbn [elapsed dt_of]; rewrite elapsed_app; cbn [elapsed dt_of]; lia].
    rewrite <- !files_of_vw, Ev. apply gview_files. exact Hb.
  - intros i o b Hi Hw. destruct (run x0 ops) as [x1 obs1]. cbn [snd nth_error] in *.
    rewrite (C1 i o Hi b Hw), gcur_before, files_of_vw. reflexivity.
Qed.

(* ================================================================== sequences of runs *)
(* the runs without their clock ticks, as runs_files takes them *)
Definition strip (rs : list trun) : list (config * list op) := List.map (fun r => (snd (fst r), snd r)) rs.
(* a run with a size criterion *)
Definition size_run_tsd (r : trun) : Prop := exists m, tsdcfg (cfg_of r) (CSize m).


Lemma runs_rel_tz sp (utc : bool) off lo hi : let e := (if utc then 0 else off)%Z in years_ok e lo hi ->
  forall rs x d c0 n, c_spec c0 = sp -> c_utc c0 = utc -> Forall (run_ok_tsd sp utc) rs -> Forall size_run_tsd rs ->
  IdleTd c0 e off lo n x d ->
  (wnow (s_w x) + elapsed (runs_ops_t rs) <= hi)%Z -> (N.of_nat (n + length (runs_ops_t rs)) <= usize_max)%N ->
  exists d', IdleTd c0 e off lo (n + length (runs_ops_t rs)) (fst (run x (runs_ops_t rs))) d'
    /\ filesD d' = runs_files (filesD d) (strip rs)
    /\ wnow (s_w (fst (run x (runs_ops_t rs)))) = (wnow (s_w x) + elapsed (runs_ops_t rs))%Z.
Proof.
  intros e Y. induction rs as [|[[dt c] ops] r IH]; intros x d c0 n Ec0 Eu0 Hrs Hsz Id Hhi Hmax.
  - cbn [runs_ops_t run fst length elapsed strip List.map runs_files]. rewrite Nat.add_0_r. exists d.
    split; [exact Id|]. split; [reflexivity | lia].
  - inversion Hrs as [|r0 r' Hok Hr]; subst. inversion Hsz as [|r0 r' [m Hcfg] Hsr]; subst. apply run_ok_tsd_elim in Hok.
    destruct Hok as [Hdt [Ec [Eu [_ [T [Hb [Htk Hap]]]]]]]. unfold cfg_of in Hcfg. cbn [fst snd] in Hcfg.
    cbn [runs_ops_t] in *. rewrite elapsed_app in Hhi. rewrite app_length in Hmax.
    pose proof (runs_elapsed_nonneg_tsd _ _ r Hr) as Er.
    assert (Id' : IdleTd c e off lo n x d) by (apply (idleTd_spec c0 c); congruence).
    destruct (one_run_tz c m e off lo hi n x d dt ops Hcfg T Y Hap Id' Hdt Hb Htk ltac:(lia) ltac:(lia)) as [[d1 [Id1 [F1 W1]]] _].
    rewrite fst_run_app. set (x1 := fst (run x (run_t dt c ops))) in *.
    assert (Id1' : IdleTd c0 e off lo (n + length (run_t dt c ops)) x1 d1) by (apply (idleTd_spec c c0); congruence).
    destruct (IH x1 d1 c0 (n + length (run_t dt c ops)) eq_refl eq_refl Hr Hsr Id1' ltac:(lia) ltac:(lia)) as [d2 [Id2 [F2 W2]]].
    exists d2. rewrite app_length, elapsed_app, Nat.add_assoc.
    split; [exact Id2|]. split; [|lia].
    rewrite F2, F1. cbn [strip List.map runs_files fst snd]. destruct Hcfg as [-> _]. reflexivity.
Qed.

(* C08 for any number of runs on one directory under TimestampsDirect naming, each run with its own limit, buffer capacity
   and append flag, the clock advancing between and within the runs: the files, in the order of their keys (time stamp of
   the creation, restart counter), read the fold of files_after over the runs *)
Theorem timestampsdirect_runs_partition sp utc t0 off rs :
  Forall (run_ok_tsd sp utc) rs -> Forall size_run_tsd rs ->
  let e := if utc then 0%Z else off in
  (0 <= t0 + e)%Z -> (t0 + elapsed (runs_ops_t rs) + e < sec_max)%Z -> (N.of_nat (length (runs_ops_t rs)) <= usize_max)%N ->
  let f := wfs (s_w (fst (run (sys0 t0 off) (runs_ops_t rs)))) in
  exists keys,
    (forall c, c_spec c = sp -> tsd_view c e f keys (runs_files [] (strip rs)))
    /\ keys_ok keys
    /\ (forall k, In k keys -> (t0 <= fst k <= t0 + elapsed (runs_ops_t rs))%Z).
Proof.
  intros Hrs Hsz e Hlo Hhi Hmax f.
  assert (Y : years_ok e t0 (t0 + elapsed (runs_ops_t rs))) by (split; assumption).
  pose proof (idleTd0 (sp_config_utc sp utc) t0 off) as Id0. change (ts_e (sp_config_utc sp utc) off) with e in Id0.
  destruct (runs_rel_tz sp utc off t0 _ Y rs (sys0 t0 off) None (sp_config_utc sp utc) 0 eq_refl eq_refl Hrs Hsz Id0
              ltac:(cbn [sys0 s_w world0 wnow]; lia) ltac:(cbn [Nat.add]; exact Hmax)) as [d' [Id [F W]]].
  cbn [filesD] in F. cbn [sys0 s_w world0 wnow] in W. fold f in Id.
  destruct (idleTd_view sp (sp_config_utc sp utc) e off t0 _ _ d' eq_refl Id) as [V [_ [K Rg]]].
  exists (keysD d'). rewrite <- F. split; [exact V|]. split; [exact K|].
  intros k Ik. specialize (Rg k Ik). lia.
Qed.
Print Assumptions timestampsdirect_runs_partition.

(* the rotation flag of every write of a run (limit m) that follows any number of runs: the bytes counted are those of the
   current file of this run, which starts with the content of the newest file found iff the run appends *)
Theorem timestampsdirect_runs_rotates_iff sp utc t0 off rs dt c m ops i o b :
  Forall (run_ok_tsd sp utc) (rs ++ [(dt, c, ops)]) -> Forall size_run_tsd rs -> tsdcfg c (CSize m) ->
  let e := if utc then 0%Z else off in
  (0 <= t0 + e)%Z -> (t0 + elapsed (runs_ops_t (rs ++ [(dt, c, ops)])) + e < sec_max)%Z ->
  (N.of_nat (length (runs_ops_t (rs ++ [(dt, c, ops)]))) <= usize_max)%N ->
  nth_error ops i = Some o -> (o = OWrite b \/ o = OPlain b) ->
  nth_error (snd (run (fst (run (sys0 t0 off) (runs_ops_t rs))) (OTick dt :: OStart c :: ops))) (S (S i))
  = Some (ObsRes 0 (m <? N.of_nat (length (cur_before m (start_of (runs_files [] (strip rs)) (c_append c)) (firstn i ops))))%N).
Proof.
  intros Hrs Hsz Hcfg e Hlo Hhi Hmax Hi Hw. apply Forall_app in Hrs. destruct Hrs as [Hrs1 Hrs2].
  inversion Hrs2 as [|r0 r' Hok _]; subst. apply run_ok_tsd_elim in Hok.
  destruct Hok as [Hdt [Ec [Eu [_ [T [Hb [Htk Hap]]]]]]].
  rewrite runs_ops_t_app in Hhi, Hmax. rewrite elapsed_app in Hhi. rewrite app_length in Hmax.
  cbn [runs_ops_t] in Hhi, Hmax. rewrite app_nil_r in Hhi, Hmax.
  pose proof (runs_elapsed_nonneg_tsd sp utc rs Hrs1) as E1.
  assert (E2 : (0 <= elapsed (run_t dt c ops))%Z).
  { unfold run_t. cbn [elapsed dt_of]. rewrite elapsed_app. cbn [elapsed dt_of]. pose proof (elapsed_nonneg ops Htk). lia. }
  set (hi := (t0 + (elapsed (runs_ops_t rs) + elapsed (run_t dt c ops)))%Z).
  assert (Y : years_ok e t0 hi) by (split; assumption).
  pose proof (idleTd0 (sp_config_utc sp utc) t0 off) as Id0. change (ts_e (sp_config_utc sp utc) off) with e in Id0.
  destruct (runs_rel_tz sp utc off t0 hi Y rs (sys0 t0 off) None (sp_config_utc sp utc) 0 eq_refl eq_refl Hrs1 Hsz Id0
              ltac:(cbn [sys0 s_w world0 wnow]; unfold hi; lia) ltac:(cbn [Nat.add]; lia)) as [d1 [Id1 [F1 W1]]].
  cbn [filesD] in F1. cbn [sys0 s_w world0 wnow] in W1. cbn [Nat.add] in Id1.
  set (x1 := fst (run (sys0 t0 off) (runs_ops_t rs))) in *.
  assert (Id1' : IdleTd c e off t0 (length (runs_ops_t rs)) x1 d1) by (apply (idleTd_spec (sp_config_utc sp utc) c); [symmetry; exact Ec | symmetry; exact Eu | exact Id1]).
  destruct (one_run_tz c m e off t0 hi _ x1 d1 dt ops Hcfg T Y Hap Id1' Hdt Hb Htk ltac:(unfold hi; lia) ltac:(lia)) as [_ C].
  rewrite <- F1. exact (C i o b Hi Hw).
Qed.
Print Assumptions timestampsdirect_runs_rotates_iff.

(* ================================================================== two runs *)
Lemma strip_one c m dt ops : tsdcfg c (CSize m) -> forall files,
  runs_files files (strip [(dt, c, ops)]) = files_after files (c_append c) m ops.
Proof. intros [Hrot _] files. cbn [strip List.map runs_files fst snd]. rewrite Hrot. reflexivity. Qed.

Lemma two_runs_ok c1 c2 m1 m2 dt ops1 ops2 :
  tsdcfg c1 (CSize m1) -> tsdcfg c2 (CSize m2) -> tag_ok c1 -> tag_ok c2 -> c_spec c1 = c_spec c2 -> c_utc c1 = c_utc c2 ->
  (c_append c1 = true -> probe_ok c1) -> (c_append c2 = true -> probe_ok c2) -> (0 <= dt)%Z ->
  Forall basic_op ops1 -> Forall tick_ok ops1 -> Forall basic_op ops2 -> Forall tick_ok ops2 ->
  Forall (run_ok_tsd (c_spec c2) (c_utc c2)) [(0%Z, c1, ops1); (dt, c2, ops2)]
  /\ Forall size_run_tsd [(0%Z, c1, ops1)] /\ Forall size_run_tsd [(0%Z, c1, ops1); (dt, c2, ops2)].
Proof.
  intros H1 H2 T1 T2 Es Eu P1 P2 Hdt Hb1 Ht1 Hb2 Ht2.
  assert (S1 : size_run_tsd (0%Z, c1, ops1)) by (exists m1; exact H1).
  assert (S2 : size_run_tsd (dt, c2, ops2)) by (exists m2; exact H2).
  split; [|split; repeat constructor; assumption].
  constructor; [|constructor; [|constructor]]; apply run_ok_tsd_intro.
  - split; [lia|]. split; [exact Es|]. split; [exact Eu|]. split; [eexists; exact H1|]. split; [exact T1|]. split; [exact Hb1|]. split; [exact Ht1 | exact P1].
  - split; [exact Hdt|]. split; [reflexivity|]. split; [reflexivity|]. split; [eexists; exact H2|]. split; [exact T2|]. split; [exact Hb2|]. split; [exact Ht2 | exact P2].
Qed.

(* Two runs, the second one appending (dt seconds later): the newest file - the last one of run 1 - is continued under its
   old name, and its content counts for the limit from the first write on *)
Theorem timestampsdirect_append_partition c1 c2 m1 m2 t0 off dt ops1 ops2 closed1 cur1 :
  tsdcfg c1 (CSize m1) -> tsdcfg c2 (CSize m2) -> tag_ok c1 -> tag_ok c2 -> c_spec c1 = c_spec c2 -> c_utc c1 = c_utc c2 ->
  (c_append c1 = true -> probe_ok c1) -> c_append c2 = true -> probe_ok c2 -> (0 <= dt)%Z ->
  Forall basic_op ops1 -> Forall tick_ok ops1 -> Forall basic_op ops2 -> Forall tick_ok ops2 ->
  expected_files m1 None (items false ops1) = closed1 ++ [cur1] ->
  let rs := [(0%Z, c1, ops1); (dt, c2, ops2)] in
  let e := ts_e c2 off in
  (0 <= t0 + e)%Z -> (t0 + elapsed (runs_ops_t rs) + e < sec_max)%Z -> (N.of_nat (length (runs_ops_t rs)) <= usize_max)%N ->
  exists keys,
    tsd_view c2 e (wfs (s_w (fst (run (sys0 t0 off) (runs_ops_t rs))))) keys
             (closed1 ++ expected_files m2 (Some cur1) (items false ops2))
    /\ keys_ok keys /\ (forall k, In k keys -> (t0 <= fst k <= t0 + elapsed (runs_ops_t rs))%Z).
Proof.
  intros H1 H2 T1 T2 Es Eu P1 Happ P2 Hdt Hb1 Ht1 Hb2 Ht2 E1 rs e Hlo Hhi Hmax.
  destruct (two_runs_ok c1 c2 m1 m2 dt ops1 ops2 H1 H2 T1 T2 Es Eu P1 (fun _ => P2) Hdt Hb1 Ht1 Hb2 Ht2) as [Hok [_ Hsz]].
  destruct (timestampsdirect_runs_partition (c_spec c2) (c_utc c2) t0 off rs Hok Hsz Hlo Hhi Hmax) as [keys [V [K Rg]]].
  exists keys. split; [|split; assumption]. specialize (V c2 eq_refl).
  replace (runs_files [] (strip rs)) with (closed1 ++ expected_files m2 (Some cur1) (items false ops2)) in V; [exact V|].
  change (strip rs) with (strip [(0%Z, c1, ops1)] ++ strip [(dt, c2, ops2)]).
  cbn [strip List.map app runs_files fst snd]. destruct H1 as [-> _]. destruct H2 as [-> _].
  rewrite files_after_nil, E1, Happ, files_after_append. reflexivity.
Qed.
Print Assumptions timestampsdirect_append_partition.

Theorem timestampsdirect_append_rotates_iff c1 c2 m1 m2 t0 off dt ops1 ops2 closed1 cur1 i o b :
  tsdcfg c1 (CSize m1) -> tsdcfg c2 (CSize m2) -> tag_ok c1 -> tag_ok c2 -> c_spec c1 = c_spec c2 -> c_utc c1 = c_utc c2 ->
  (c_append c1 = true -> probe_ok c1) -> c_append c2 = true -> probe_ok c2 -> (0 <= dt)%Z ->
  Forall basic_op ops1 -> Forall tick_ok ops1 -> Forall basic_op ops2 -> Forall tick_ok ops2 ->
  expected_files m1 None (items false ops1) = closed1 ++ [cur1] ->
  let rs := [(0%Z, c1, ops1); (dt, c2, ops2)] in
  let e := ts_e c2 off in
  (0 <= t0 + e)%Z -> (t0 + elapsed (runs_ops_t rs) + e < sec_max)%Z -> (N.of_nat (length (runs_ops_t rs)) <= usize_max)%N ->
  nth_error ops2 i = Some o -> (o = OWrite b \/ o = OPlain b) ->
  nth_error (snd (run (fst (run (sys0 t0 off) (runs_ops_t [(0%Z, c1, ops1)]))) (OTick dt :: OStart c2 :: ops2))) (S (S i))
  = Some (ObsRes 0 (m2 <? N.of_nat (length (cur_of (s_run m2 (Some ([], cur1)) (from_first_write (firstn i ops2))))))%N).
Proof.
  intros H1 H2 T1 T2 Es Eu P1 Happ P2 Hdt Hb1 Ht1 Hb2 Ht2 E1 rs e Hlo Hhi Hmax Hi Hw.
  destruct (two_runs_ok c1 c2 m1 m2 dt ops1 ops2 H1 H2 T1 T2 Es Eu P1 (fun _ => P2) Hdt Hb1 Ht1 Hb2 Ht2) as [Hok [Hsz1 _]].
  rewrite (timestampsdirect_runs_rotates_iff (c_spec c2) (c_utc c2) t0 off [(0%Z, c1, ops1)] dt c2 m2 ops2 i o b Hok Hsz1 H2 Hlo Hhi Hmax Hi Hw).
  rewrite (strip_one c1 m1 0%Z ops1 H1), files_after_nil, E1, Happ, start_of_append. reflexivity.
Qed.
Print Assumptions timestampsdirect_append_rotates_iff.

(* without append a new file is started at the first write: the files of run 1 stay, run 2 partitions as from a fresh start *)
Theorem timestampsdirect_noappend_partition c1 c2 m1 m2 t0 off dt ops1 ops2 :
  tsdcfg c1 (CSize m1) -> tsdcfg c2 (CSize m2) -> tag_ok c1 -> tag_ok c2 -> c_spec c1 = c_spec c2 -> c_utc c1 = c_utc c2 ->
  (c_append c1 = true -> probe_ok c1) -> c_append c2 = false -> (0 <= dt)%Z ->
  Forall basic_op ops1 -> Forall tick_ok ops1 -> Forall basic_op ops2 -> Forall tick_ok ops2 ->
  let rs := [(0%Z, c1, ops1); (dt, c2, ops2)] in
  let e := ts_e c2 off in
  (0 <= t0 + e)%Z -> (t0 + elapsed (runs_ops_t rs) + e < sec_max)%Z -> (N.of_nat (length (runs_ops_t rs)) <= usize_max)%N ->
  (exists keys,
    tsd_view c2 e (wfs (s_w (fst (run (sys0 t0 off) (runs_ops_t rs))))) keys
             (expected_files m1 None (items false ops1) ++ expected_files m2 None (items false ops2))
    /\ keys_ok keys /\ (forall k, In k keys -> (t0 <= fst k <= t0 + elapsed (runs_ops_t rs))%Z))
  /\ (forall i o b, nth_error ops2 i = Some o -> (o = OWrite b \/ o = OPlain b) ->
        nth_error (snd (run (fst (run (sys0 t0 off) (runs_ops_t [(0%Z, c1, ops1)]))) (OTick dt :: OStart c2 :: ops2))) (S (S i))
        = Some (ObsRes 0 (m2 <? N.of_nat (length (cur_of (s_run m2 None (firstn i ops2)))))%N)).
Proof.
  intros H1 H2 T1 T2 Es Eu P1 Happ Hdt Hb1 Ht1 Hb2 Ht2 rs e Hlo Hhi Hmax.
  assert (P2 : c_append c2 = true -> probe_ok c2) by (rewrite Happ; discriminate).
  destruct (two_runs_ok c1 c2 m1 m2 dt ops1 ops2 H1 H2 T1 T2 Es Eu P1 P2 Hdt Hb1 Ht1 Hb2 Ht2) as [Hok [Hsz1 Hsz]].
  split.
  - destruct (timestampsdirect_runs_partition (c_spec c2) (c_utc c2) t0 off rs Hok Hsz Hlo Hhi Hmax) as [keys [V [K Rg]]].
    exists keys. split; [|split; assumption]. specialize (V c2 eq_refl).
    replace (runs_files [] (strip rs)) with (expected_files m1 None (items false ops1) ++ expected_files m2 None (items false ops2)) in V; [exact V|].
    cbn [rs strip List.map app runs_files fst snd]. destruct H1 as [-> _]. destruct H2 as [-> _].
    rewrite files_after_nil, Happ. reflexivity.
  - intros i o b Hi Hw.
    rewrite (timestampsdirect_runs_rotates_iff (c_spec c2) (c_utc c2) t0 off [(0%Z, c1, ops1)] dt c2 m2 ops2 i o b Hok Hsz1 H2 Hlo Hhi Hmax Hi Hw).
    rewrite Happ. reflexivity.
Qed.
Print Assumptions timestampsdirect_noappend_partition.

(* ================================================================== examples *)
Open Scope string_scope.
Definition tap_c1 : config := rsd_cfg false (CSize 3) None.
Definition tap_c2 : config := rsd_cfg true (CSize 5) (Some 3%nat).
Definition tap_c2n : config := rsd_cfg false (CSize 5) (Some 3%nat).
Definition tap_rs : list trun := [(0%Z, tap_c1, ap_ops1); (5%Z, tap_c2, ap_ops2)].

Lemma tap_ok app m cap : tsdcfg (rsd_cfg app (CSize m) cap) (CSize m).
Proof. apply tsd_cfg_ok. reflexivity. Qed.
Lemma ap_ops1_ticks : Forall tick_ok ap_ops1. Proof. repeat constructor. Qed.
Lemma ap_ops2_ticks : Forall tick_ok ap_ops2. Proof. repeat (constructor; [cbn [tick_ok]; first [exact Logic.I | lia]|]). constructor. Qed.

(* run 1 (limit 3) leaves <00:00:00> = abcd, <00:00:00>.restart-0000 = ef, <00:00:00>.restart-0001 = ghij.  Five seconds later
   the appending run 2 (limit 5, buffered) continues the newest file under its OLD name: "kl" goes into it, the clock advances
   by 7 seconds, "mn" rotates because the 4 bytes found count (6 > 5): the new file carries the second 12 *)
Example tsd_append_partition_dir :
  snap_of (fst (run (sys0 0 0) (runs_ops_t tap_rs)))
  = [ (bs "app_r1970-01-01_00-00-00.log", 0%N, bs "abcd");
      (bs "app_r1970-01-01_00-00-00.restart-0000.log", 0%N, bs "ef");
      (bs "app_r1970-01-01_00-00-00.restart-0001.log", 0%N, bs "ghijkl");
      (bs "app_r1970-01-01_00-00-12.log", 0%N, bs "mnop") ]
  /\ List.map rot_of (snd (run (fst (run (sys0 0 0) (runs_ops_t [(0%Z, tap_c1, ap_ops1)]))) (OTick 5 :: OStart tap_c2 :: ap_ops2)))
     = [false; false; false; false; false; true; false]
  /\ expected_files 3 None (items false ap_ops1) = [bs "abcd"; bs "ef"] ++ [bs "ghij"]
  /\ expected_files 5 (Some (bs "ghij")) (items false ap_ops2) = [bs "ghijkl"; bs "mnop"].
Proof. vm_compute. repeat split; reflexivity. Qed.

(* the theorem applies: its hypotheses can be met *)
Example tsd_append_partition_instance :
  exists keys,
    tsd_view tap_c2 0 (wfs (s_w (fst (run (sys0 0 0) (runs_ops_t tap_rs))))) keys ([bs "abcd"; bs "ef"] ++ [bs "ghijkl"; bs "mnop"])
    /\ keys_ok keys /\ (forall k, In k keys -> (0 <= fst k <= 12)%Z).
Proof.
  change [bs "ghijkl"; bs "mnop"] with (expected_files 5 (Some (bs "ghij")) (items false ap_ops2)).
  apply (timestampsdirect_append_partition tap_c1 tap_c2 3 5 0 0 5 ap_ops1 ap_ops2 [bs "abcd"; bs "ef"] (bs "ghij")).
  - apply tap_ok.
  - apply tap_ok.
  - apply rsd_cfg_tag_ok.
  - apply rsd_cfg_tag_ok.
  - reflexivity.
  - reflexivity.
  - intros _. apply rsd_cfg_probe_ok.
  - reflexivity.
  - apply rsd_cfg_probe_ok.
  - lia.
  - exact ap_ops1_basic.
  - exact ap_ops1_ticks.
  - exact ap_ops2_basic.
  - exact ap_ops2_ticks.
  - vm_compute. reflexivity.
  - change (0 <= 0)%Z. lia.
  - change (12 < sec_max)%Z. unfold sec_max. lia.
  - vm_compute. discriminate.
Qed.

Example tsd_append_rotates_instance :
  nth_error (snd (run (fst (run (sys0 0 0) (runs_ops_t [(0%Z, tap_c1, ap_ops1)]))) (OTick 5 :: OStart tap_c2 :: ap_ops2))) 5
  = Some (ObsRes 0 true).
Proof.
  rewrite (timestampsdirect_append_rotates_iff tap_c1 tap_c2 3 5 0 0 5 ap_ops1 ap_ops2 [bs "abcd"; bs "ef"] (bs "ghij") 3
             (OWrite (bs "mn")) (bs "mn")).
  - vm_compute. reflexivity.
  - apply tap_ok.
  - apply tap_ok.
  - apply rsd_cfg_tag_ok.
  - apply rsd_cfg_tag_ok.
  - reflexivity.
  - reflexivity.
  - intros _. apply rsd_cfg_probe_ok.
  - reflexivity.
  - apply rsd_cfg_probe_ok.
  - lia.
  - exact ap_ops1_basic.
  - exact ap_ops1_ticks.
  - exact ap_ops2_basic.
  - exact ap_ops2_ticks.
  - vm_compute. reflexivity.
  - change (0 <= 0)%Z. lia.
  - change (12 < sec_max)%Z. unfold sec_max. lia.
  - vm_compute. discriminate.
  - reflexivity.
  - left. reflexivity.
Qed.

(* without append: a new file in the second 5, the 4 bytes of "ghij" do not count: klmnop (limit 5) stays in one file *)
Example tsd_noappend_partition_dir :
  snap_of (fst (run (sys0 0 0) (runs_ops_t [(0%Z, tap_c1, ap_ops1); (5%Z, tap_c2n, ap_ops2)])))
  = [ (bs "app_r1970-01-01_00-00-00.log", 0%N, bs "abcd");
      (bs "app_r1970-01-01_00-00-00.restart-0000.log", 0%N, bs "ef");
      (bs "app_r1970-01-01_00-00-00.restart-0001.log", 0%N, bs "ghij");
      (bs "app_r1970-01-01_00-00-05.log", 0%N, bs "klmnop") ]
  /\ expected_files 3 None (items false ap_ops1) ++ expected_files 5 None (items false ap_ops2)
     = [bs "abcd"; bs "ef"; bs "ghij"; bs "klmnop"].
Proof. vm_compute. split; reflexivity. Qed.

(* five runs: (3) an appending writer with the limit 0 that triggers and flushes but never writes changes nothing - the file
   found is not even looked at -; (4) appends with the limit 3: a trigger before the first write does nothing, the first write
   finds "mnop" (4 > 3) and rotates; (5) without append, in the same second: the next restart counter *)
Definition tap_rs5 : list trun :=
  [(0%Z, tap_c1, ap_ops1); (5%Z, tap_c2, ap_ops2); (1%Z, rsd_cfg true (CSize 0) None, [OTrigger; OFlush; OTick 2]);
   (1%Z, rsd_cfg true (CSize 3) None, [OTrigger; OWrite (bs "q"); OWrite (bs "r")]); (0%Z, tap_c2n, [OWrite (bs "s")])].

Example tsd_runs_partition_dir :
  snap_of (fst (run (sys0 0 0) (runs_ops_t tap_rs5)))
  = [ (bs "app_r1970-01-01_00-00-00.log", 0%N, bs "abcd");
      (bs "app_r1970-01-01_00-00-00.restart-0000.log", 0%N, bs "ef");
      (bs "app_r1970-01-01_00-00-00.restart-0001.log", 0%N, bs "ghijkl");
      (bs "app_r1970-01-01_00-00-12.log", 0%N, bs "mnop");
      (bs "app_r1970-01-01_00-00-16.log", 0%N, bs "qr");
      (bs "app_r1970-01-01_00-00-16.restart-0000.log", 0%N, bs "s") ]
  /\ runs_files [] (strip tap_rs5) = [bs "abcd"; bs "ef"; bs "ghijkl"; bs "mnop"; bs "qr"; bs "s"].
Proof. vm_compute. split; reflexivity. Qed.

Lemma tap_rs5_ok : Forall (run_ok_tsd rsd_sp false) tap_rs5 /\ Forall size_run_tsd tap_rs5.
Proof.
  split.
  - unfold tap_rs5.
    repeat (apply Forall_cons;
            [apply run_ok_tsd_intro; split; [lia|]; split; [reflexivity|]; split; [reflexivity|];
             split; [eexists; apply tsd_cfg_ok; reflexivity|]; split; [apply rsd_cfg_tag_ok|];
             split; [repeat constructor|];
             split; [repeat (apply Forall_cons; [cbn [tick_ok]; first [exact Logic.I | lia]|]); apply Forall_nil|];
             intros _; apply rsd_cfg_probe_ok|]).
    apply Forall_nil.
  - unfold tap_rs5. repeat (apply Forall_cons; [eexists; apply tsd_cfg_ok; reflexivity|]). apply Forall_nil.
Qed.

Example tsd_runs_partition_instance :
  exists keys,
    (forall c, c_spec c = rsd_sp ->
       tsd_view c 0 (wfs (s_w (fst (run (sys0 0 0) (runs_ops_t tap_rs5))))) keys [bs "abcd"; bs "ef"; bs "ghijkl"; bs "mnop"; bs "qr"; bs "s"])
    /\ keys_ok keys /\ (forall k, In k keys -> (0 <= fst k <= 16)%Z).
Proof.
  change [bs "abcd"; bs "ef"; bs "ghijkl"; bs "mnop"; bs "qr"; bs "s"] with (runs_files [] (strip tap_rs5)).
  apply (timestampsdirect_runs_partition rsd_sp false 0 0 tap_rs5 (proj1 tap_rs5_ok) (proj2 tap_rs5_ok));
    [change (0 <= 0)%Z; lia | change (16 + 0 < sec_max)%Z; unfold sec_max; lia | vm_compute; discriminate].
Qed.

(* a trigger before the first write of the appending run does nothing here either; the content found counts at the write *)
Example tsd_append_trigger_before_first_write :
  List.map rot_of (snd (run (fst (run (sys0 0 0) (runs_ops_t (firstn 3 tap_rs5))))
                            (OTick 1 :: OStart (rsd_cfg true (CSize 3) None) :: [OTrigger; OWrite (bs "q"); OWrite (bs "r")])))
  = [false; false; false; true; false]
  /\ (3 <? N.of_nat (length (cur_before 3 (start_of (runs_files [] (strip (firstn 3 tap_rs5))) true) (firstn 1 [OTrigger; OWrite (bs "q"); OWrite (bs "r")]))))%N = true.
Proof. vm_compute. split; reflexivity. Qed.

(* ================================================================== any start state *)
(* x: no writer, the directory reads d (IdleTd: what any sequence of runs leaves behind; files filesD d in the order of
   their keys).  One more run, dt seconds later: the partition continues from d, the flags count what is found *)
Theorem timestampsdirect_partition_any_start c m e off lo hi n x d dt ops :
  tsdcfg c (CSize m) -> tag_ok c -> years_ok e lo hi -> (c_append c = true -> probe_ok c) -> IdleTd c e off lo n x d -> (0 <= dt)%Z ->
  Forall basic_op ops -> Forall tick_ok ops ->
  (wnow (s_w x) + elapsed (run_t dt c ops) <= hi)%Z -> (N.of_nat (n + length (run_t dt c ops)) <= usize_max)%N ->
  (exists keys, tsd_view c e (wfs (s_w (fst (run x (run_t dt c ops))))) keys (files_after (filesD d) (c_append c) m ops) /\ keys_ok keys)
  /\ (forall i o b, nth_error ops i = Some o -> (o = OWrite b \/ o = OPlain b) ->
        nth_error (snd (run x (OTick dt :: OStart c :: ops))) (S (S i))
        = Some (ObsRes 0 (m <? N.of_nat (length (cur_before m (start_of (filesD d) (c_append c)) (firstn i ops))))%N)).
Proof.
  intros Hcfg T Y Hao Id Hdt Hb Htk Hhi Hmax.
  destruct (one_run_tz c m e off lo hi n x d dt ops Hcfg T Y Hao Id Hdt Hb Htk Hhi Hmax) as [[d' [Id' [F _]]] C].
  split; [|exact C].
  destruct (idleTd_view (c_spec c) c e off lo _ _ d' eq_refl Id') as [V [_ [K _]]].
  exists (keysD d'). rewrite <- F. split; [apply V; reflexivity | exact K].
Qed.
Print Assumptions timestampsdirect_partition_any_start.

Example tsd_any_start_instance :
  exists d, IdleTd tap_c2 0 0 0 (length (runs_ops_t [(0%Z, tap_c1, ap_ops1)])) (fst (run (sys0 0 0) (runs_ops_t [(0%Z, tap_c1, ap_ops1)]))) d
            /\ filesD d = [bs "abcd"; bs "ef"; bs "ghij"]
            /\ files_after (filesD d) (c_append tap_c2) 5 ap_ops2 = [bs "abcd"; bs "ef"; bs "ghijkl"; bs "mnop"].
Proof.
  assert (Y : years_ok 0 0 0) by (split; [lia | unfold sec_max; lia]).
  destruct (two_runs_ok tap_c1 tap_c2 3 5 5 ap_ops1 ap_ops2 (tap_ok _ _ _) (tap_ok _ _ _) (rsd_cfg_tag_ok _ _ _) (rsd_cfg_tag_ok _ _ _)
              eq_refl eq_refl (fun _ => rsd_cfg_probe_ok _ _ _) (fun _ => rsd_cfg_probe_ok _ _ _) ltac:(lia)
              ap_ops1_basic ap_ops1_ticks ap_ops2_basic ap_ops2_ticks) as [Hok [Hsz _]].
  inversion Hok as [|r0 r' Hok1 _]; subst.
  destruct (runs_rel_tz rsd_sp false 0 0 0 Y [(0%Z, tap_c1, ap_ops1)] (sys0 0 0) None tap_c2 0 eq_refl eq_refl
              (Forall_cons _ Hok1 (Forall_nil _)) Hsz (idleTd0 tap_c2 0 0)
              ltac:(vm_compute; discriminate) ltac:(vm_compute; discriminate)) as [d [Id [F _]]].
  exists d. split; [exact Id|]. rewrite F. split; vm_compute; reflexivity.
Qed.
