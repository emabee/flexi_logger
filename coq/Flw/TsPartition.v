(* Timestamps naming (rCURRENT + r<time stamp>[.restart-NNNN]) with a size criterion: the partition theorem, the rotation
   flags and the C08 oracle for whole runs from an empty directory.
   The run is the one of TsAge.v against the timed view; under a size criterion the timed view with its instants
   forgotten is the view of the size rule (s_run), and the flag of a write is the size rule's decision (untime_t_run).
   First, for the sequences of runs of TsAppendPartition.v and TsdAppendPartition.v: NumAppendPartition.files_after on an
   empty directory and on a last file that is continued (files_after_nil, files_after_append). *)
Require Import FL.Flw.NumAppendPartition FL.Base.Bytes FL.Base.PathName FL.Fs.Fs FL.Fs.FsFacts FL.Time.TsFormat
  FL.Names.FileSpec FL.Names.NamesFacts FL.Names.SortFacts FL.Names.FamilyFacts FL.Flw.Model FL.Flw.ModelFacts
  FL.Flw.NumInv FL.Flw.Run FL.Flw.NumRun FL.Oracles.O_Flw FL.Oracles.ReaderOrder FL.Flw.NumTheorems FL.Flw.NumListing
  FL.Flw.NumRestart FL.Flw.NumAgeInv FL.Flw.NumAge FL.Flw.NumDTheorems
  FL.Flw.TsTime FL.Flw.TsNames FL.Flw.TsInv FL.Flw.TsRun FL.Flw.TsTheorems FL.Flw.TsReader
  FL.Flw.TsdRun FL.Flw.TsdTheorems FL.Flw.TsAge.
From Coq Require Import Sorted.
Open Scope nat_scope.

(* ------------------------------------------------------------------ the files after a run that finds files *)
Lemma files_after_nil app m ops : files_after [] app m ops = expected_files m None (items false ops).
Proof. unfold files_after. destruct app; reflexivity. Qed.

Lemma files_after_append cl cu m ops :
  files_after (cl ++ [cu]) true m ops = cl ++ expected_files m (Some cu) (items false ops).
Proof.
  unfold files_after. destruct (cl ++ [cu]) eqn:E0; [destruct cl; discriminate|]. rewrite <- E0.
  rewrite removelast_last, last_last. reflexivity.
Qed.

Lemma start_of_append cl cu : start_of (cl ++ [cu]) true = Some cu.
Proof. unfold start_of. destruct (cl ++ [cu]) eqn:E0; [destruct cl; discriminate|]. rewrite <- E0, last_last. reflexivity. Qed.

(* ------------------------------------------------------------------ the timed view under a size criterion *)
Lemma t_flag_size m off v t : t_flag (CSize m) off v t = (m <? N.of_nat (length (cur_of (untime v))))%N.
Proof.
  destruct v as [[cl [st cu]]|]; cbn [t_flag untime cur_of length N.of_nat]; [reflexivity|].
  symmetry. apply N.ltb_ge. lia.
Qed.

Lemma untime_t_step m off v t o :
  untime (t_step (CSize m) off v t o) = a_step (untime v) o (m <? N.of_nat (length (cur_of (untime v))))%N.
Proof.
  rewrite <- (t_flag_size m off v t).
  destruct o; try reflexivity; destruct v as [[cl [st cu]]|]; cbn [t_step untime a_step t_flag]; try reflexivity;
    destruct (due (CSize m) off st cu t); cbn [untime]; rewrite ?map_app; reflexivity.
Qed.

Lemma untime_t_run m off ops : forall v t, untime (t_run (CSize m) off v t ops) = s_run m (untime v) ops.
Proof.
  induction ops as [|o r IH]; intros v t; cbn [t_run s_run]; [reflexivity|]. rewrite IH, untime_t_step. reflexivity.
Qed.

(* whatever the criterion: a view, once there, stays; there is none exactly as long as no record was written *)
Lemma t_step_some crit off p t o : exists q, t_step crit off (Some p) t o = Some q.
Proof. destruct p as [cl [st cu]]. destruct o; cbn [t_step]; eauto; destruct (due crit off st cu t); eauto. Qed.

Lemma t_run_keeps crit off ops : forall v t, v <> None -> t_run crit off v t ops <> None.
Proof.
  induction ops as [|o r IH]; intros v t Hv; cbn [t_run]; [exact Hv|].
  apply IH. destruct v as [p|]; [|congruence]. destruct (t_step_some crit off p t o) as [q ->]. discriminate.
Qed.

Lemma t_run_none_iff crit off ops : Forall basic_op ops -> forall t, (t_run crit off None t ops = None <-> has_write ops = false).
Proof.
  induction ops as [|o r IH]; intros Hb t; [cbn; tauto|].
  inversion Hb as [|o' r' Ho Hr]; subst.
  destruct o; try contradiction; cbn [t_run t_step has_write clock]; try (apply IH; exact Hr);
    (split; [intros E; exfalso; revert E; apply t_run_keeps; discriminate | discriminate]).
Qed.

(* ------------------------------------------------------------------ the view of a whole run *)
Lemma run_view_ts c crit t0 off ops :
  tscfg c crit -> tag_ok c -> Forall basic_op ops -> Forall tick_ok ops ->
  (0 <= t0 + ts_e c off)%Z -> (t0 + elapsed ops + ts_e c off < sec_max)%Z -> (N.of_nat (length ops) <= usize_max)%N ->
  exists x0 ob0, step (sys0 t0 off) (OStart c) = (x0, ob0) /\
    let f := wfs (s_w (fst (run (sys0 t0 off) (OStart c :: ops ++ [OStop])))) in
    match untime (t_run crit off None t0 ops) with
    | None => names f = []
    | Some (closed, cur) => exists keys, ts_view c (ts_e c off) f keys closed cur /\ keys_ok keys
                                         /\ (forall k, In k keys -> (t0 <= fst k <= t0 + elapsed ops)%Z)
    end
    /\ (forall m, crit = CSize m ->
          forall i o, nth_error ops i = Some o -> forall b, (o = OWrite b \/ o = OPlain b) ->
            nth_error (snd (run x0 ops)) i = Some (ObsRes 0 (m <? N.of_nat (length (cur_of (s_run m None (firstn i ops)))))%N)).
Proof.
  intros Hcfg T Hb Htk Hlo Hhi Hmax.
  destruct (run_view_ts_t c crit t0 off ops Hcfg T Hb Htk Hlo Hhi Hmax) as [x0 [ob0 [E0 [V F]]]].
  exists x0, ob0. split; [exact E0|]. cbn zeta. unfold ts_final in V. split.
  - destruct (t_run crit off None t0 ops) as [[cl [st cu]]|]; cbn [untime]; [|exact V].
    destruct V as [keys [V [K [Rg [Rs _]]]]]. exists keys. split; [exact V|]. split; [exact K|].
    intros k Ik. specialize (Rg k Ik). lia.
  - intros m -> i o Hi b Ho. rewrite (F i o Hi b Ho), t_flag_size, untime_t_run. reflexivity.
Qed.

(* ------------------------------------------------------------------ facts about the abstract run and the oracle *)
Lemma s_run_app m : forall ops1 ops2 a, s_run m a (ops1 ++ ops2) = s_run m (s_run m a ops1) ops2.
Proof. induction ops1 as [|o r IH]; intros ops2 a; cbn [s_run app]; [reflexivity | apply IH]. Qed.

Lemma s_run_none_iff m ops : Forall basic_op ops -> (s_run m None ops = None <-> has_write ops = false).
Proof.
  induction ops as [|o r IH]; intros Hb; [cbn; tauto|].
  inversion Hb as [|o' r' Ho Hr]; subst.
  destruct o; try contradiction; cbn [s_run has_write]; try (cbn [a_step]; apply IH; exact Hr).
  - assert (X : exists p, a_step None (OWrite b) (m <? N.of_nat (length (cur_of None)))%N = Some p)
      by exact (a_step_some ([], []) (OWrite b) _).
    destruct X as [p ->]. destruct (s_run_some m r p) as [q ->]. split; discriminate.
  - assert (X : exists p, a_step None (OPlain b) (m <? N.of_nat (length (cur_of None)))%N = Some p)
      by exact (a_step_some ([], []) (OPlain b) _).
    destruct X as [p ->]. destruct (s_run_some m r p) as [q ->]. split; discriminate.
Qed.

(* nothing is expected exactly when no record was written *)
Lemma expected_nil_iff m ops : Forall basic_op ops -> (expected_files m None (items false ops) = [] <-> has_write ops = false).
Proof.
  intros Hb. rewrite <- s_run_none by exact Hb. rewrite <- (s_run_none_iff m ops Hb).
  destruct (s_run m None ops) as [[cl cu]|]; cbn [files_of]; split; try discriminate; try reflexivity.
  intros H. destruct cl; discriminate.
Qed.

(* a trigger at the end of a history with a record: one more file, an empty one *)
Lemma expected_trigger_end m ops : Forall basic_op ops -> has_write ops = true ->
  expected_files m None (items false (ops ++ [OTrigger])) = expected_files m None (items false ops) ++ [[]].
Proof.
  intros Hb Hw.
  assert (Hb' : Forall basic_op (ops ++ [OTrigger])) by (apply Forall_app; split; [exact Hb | repeat constructor]).
  rewrite <- !s_run_none by assumption. rewrite s_run_app.
  destruct (s_run m None ops) as [[cl cu]|] eqn:E.
  - reflexivity.
  - apply (s_run_none_iff m ops Hb) in E. congruence.
Qed.

(* C08 for Timestamps naming with a size criterion: any size limit, buffer capacity, append flag, use_utc.
   After the writer is stopped
   - either no record was written: nothing is expected, and the directory is empty (a trigger, a flush, a clock tick before
     the first record leave no trace: no file has been opened yet);
   - or the expected files - the greedy partition of the records (Oracles/O_Flw.v), the very same lists as for Numbers,
     NumbersDirect and TimestampsDirect naming - are  closed ++ [cur]  with: the directory consists exactly (ts_view) of the
     closed files, named by their keys r<second>[.restart-NNNN] in the order of their closing, with the contents closed, and of
     rCURRENT with the content cur.  In particular there are exactly as many r<time stamp> files as rotations, rCURRENT always
     exists, and it holds the last list of the partition.
   When the history ends right after a rotation: a rotation by size happens in a write and the record goes into the new
   rCURRENT, which then holds just this record; a trigger at the end leaves an EMPTY rCURRENT and all records in the closed
   files (timestamps_partition_trigger_end).
   The keys are those of keys_ok (seconds non-decreasing, positions 0, 1, 2.. within a second; TsTheorems.keys_ok_order,
   ts_names_distinct); the second of a key is the one in which the file was CREATED, it lies in t0 .. t0 + elapsed ops. *)
Theorem timestamps_partition c m t0 off ops :
  tscfg c (CSize m) -> tag_ok c -> Forall basic_op ops -> Forall tick_ok ops ->
  (0 <= t0 + ts_e c off)%Z -> (t0 + elapsed ops + ts_e c off < sec_max)%Z -> (N.of_nat (length ops) <= usize_max)%N ->
  let f := wfs (s_w (fst (run (sys0 t0 off) (OStart c :: ops ++ [OStop])))) in
  let files := expected_files m None (items false ops) in
  (has_write ops = false /\ files = [] /\ names f = [])
  \/ exists keys closed cur,
       has_write ops = true
       /\ files = closed ++ [cur]
       /\ ts_view c (ts_e c off) f keys closed cur
       /\ keys_ok keys
       /\ (forall k, In k keys -> (t0 <= fst k <= t0 + elapsed ops)%Z).
Proof.
  intros Hcfg T Hb Htk Hlo Hhi Hmax.
  destruct (run_view_ts c (CSize m) t0 off ops Hcfg T Hb Htk Hlo Hhi Hmax) as [x0 [ob0 [E0 [V _]]]].
  cbv zeta in *. rewrite untime_t_run in V. cbn [untime] in V. rewrite <- s_run_none by assumption.
  destruct (s_run m None ops) as [[cl cu]|] eqn:E; cbn [files_of].
  - right. destruct V as [keys [V [K Rg]]]. exists keys, cl, cu.
    split; [|split; [reflexivity|]; split; [exact V|]; split; [exact K | exact Rg]].
    destruct (has_write ops) eqn:Hw; [reflexivity|]. apply (s_run_none_iff m ops Hb) in Hw. congruence.
  - left. split; [apply (s_run_none_iff m ops Hb); exact E|]. split; [reflexivity | exact V].
Qed.
Print Assumptions timestamps_partition.

(* the same with the two parts named: closed = all but the last list of the partition, current = the last one *)
Corollary timestamps_partition_last c m t0 off ops :
  tscfg c (CSize m) -> tag_ok c -> Forall basic_op ops -> Forall tick_ok ops ->
  (0 <= t0 + ts_e c off)%Z -> (t0 + elapsed ops + ts_e c off < sec_max)%Z -> (N.of_nat (length ops) <= usize_max)%N ->
  has_write ops = true ->
  let files := expected_files m None (items false ops) in
  exists keys,
    ts_view c (ts_e c off) (wfs (s_w (fst (run (sys0 t0 off) (OStart c :: ops ++ [OStop]))))) keys (removelast files) (last files [])
    /\ length keys = length files - 1
    /\ keys_ok keys /\ (forall k, In k keys -> (t0 <= fst k <= t0 + elapsed ops)%Z).
Proof.
  intros Hcfg T Hb Htk Hlo Hhi Hmax Hw.
  destruct (timestamps_partition c m t0 off ops Hcfg T Hb Htk Hlo Hhi Hmax) as [[Hw' _]|[keys [cl [cu [_ [Ef [V [K Rg]]]]]]]]; [congruence|].
  cbv zeta in *. rewrite Ef, removelast_last, last_last. exists keys. split; [exact V|]. split; [|split; assumption].
  rewrite app_length. cbn [length]. destruct V as [Hl _]. lia.
Qed.

(* a trigger as the last operation (after at least one record): rCURRENT is empty, the closed files hold everything *)
Corollary timestamps_partition_trigger_end c m t0 off ops :
  tscfg c (CSize m) -> tag_ok c -> Forall basic_op ops -> Forall tick_ok ops ->
  (0 <= t0 + ts_e c off)%Z -> (t0 + elapsed ops + ts_e c off < sec_max)%Z -> (N.of_nat (S (length ops)) <= usize_max)%N ->
  has_write ops = true ->
  exists keys,
    ts_view c (ts_e c off) (wfs (s_w (fst (run (sys0 t0 off) (OStart c :: (ops ++ [OTrigger]) ++ [OStop]))))) keys
            (expected_files m None (items false ops)) []
    /\ keys_ok keys /\ (forall k, In k keys -> (t0 <= fst k <= t0 + elapsed ops)%Z).
Proof.
  intros Hcfg T Hb Htk Hlo Hhi Hmax Hw.
  assert (Hb' : Forall basic_op (ops ++ [OTrigger])) by (apply Forall_app; split; [exact Hb | repeat constructor]).
  assert (Htk' : Forall tick_ok (ops ++ [OTrigger])) by (apply Forall_app; split; [exact Htk | repeat constructor]).
  assert (El : elapsed (ops ++ [OTrigger]) = elapsed ops).
  { clear. induction ops as [|o r IH]; [reflexivity|]. cbn [app elapsed]. rewrite IH. reflexivity. }
  assert (Hl : (N.of_nat (length (ops ++ [OTrigger])) <= usize_max)%N) by (rewrite app_length; cbn [length]; lia).
  destruct (timestamps_partition c m t0 off (ops ++ [OTrigger]) Hcfg T Hb' Htk' Hlo ltac:(rewrite El; exact Hhi) Hl)
    as [[_ [Hn _]]|[keys [cl [cu [_ [Ef [V [K Rg]]]]]]]].
  - rewrite expected_trigger_end in Hn by assumption. destruct (expected_files m None (items false ops)); discriminate.
  - cbv zeta in *. rewrite expected_trigger_end in Ef by assumption. apply app_inj_tail in Ef. destruct Ef as [<- <-].
    exists keys. split; [exact V|]. split; [exact K|]. rewrite El in Rg. exact Rg.
Qed.

(* each write reports a rotation exactly when the current file (disk + buffer) already exceeds the limit *)
Theorem timestamps_rotates_iff c m t0 off ops i o b :
  tscfg c (CSize m) -> tag_ok c -> Forall basic_op ops -> Forall tick_ok ops ->
  (0 <= t0 + ts_e c off)%Z -> (t0 + elapsed ops + ts_e c off < sec_max)%Z -> (N.of_nat (length ops) <= usize_max)%N ->
  nth_error ops i = Some o -> (o = OWrite b \/ o = OPlain b) ->
  nth_error (snd (run (sys0 t0 off) (OStart c :: ops))) (S i)
  = Some (ObsRes 0 (m <? N.of_nat (length (cur_of (s_run m None (firstn i ops)))))%N).
Proof.
  intros Hcfg T Hb Htk Hlo Hhi Hmax Hi Ho.
  destruct (run_view_ts c (CSize m) t0 off ops Hcfg T Hb Htk Hlo Hhi Hmax) as [x0 [ob0 [E0 [_ Z]]]].
  pose proof (Z m eq_refl) as Hr. cbn [run]. rewrite E0. destruct (run x0 ops) as [x1 obs1]. cbn [snd nth_error] in *.
  exact (Hr i o Hi b Ho).
Qed.
Print Assumptions timestamps_rotates_iff.

(* the flag in terms of the oracle: the current file is the last list of the partition of the records so far *)
Corollary timestamps_rotates_last c m t0 off ops i o b :
  tscfg c (CSize m) -> tag_ok c -> Forall basic_op ops -> Forall tick_ok ops ->
  (0 <= t0 + ts_e c off)%Z -> (t0 + elapsed ops + ts_e c off < sec_max)%Z -> (N.of_nat (length ops) <= usize_max)%N ->
  nth_error ops i = Some o -> (o = OWrite b \/ o = OPlain b) ->
  nth_error (snd (run (sys0 t0 off) (OStart c :: ops))) (S i)
  = Some (ObsRes 0 (m <? N.of_nat (length (last (expected_files m None (items false (firstn i ops))) [])))%N).
Proof.
  intros Hcfg T Hb Htk Hlo Hhi Hmax Hi Ho. rewrite (timestamps_rotates_iff c m t0 off ops i o b Hcfg T Hb Htk Hlo Hhi Hmax Hi Ho).
  rewrite s_run_cur_last by (apply firstn_Forall; exact Hb). reflexivity.
Qed.

(* nothing is in the directory exactly when no record was written (any criterion) *)
Theorem timestamps_empty_iff c crit t0 off ops :
  tscfg c crit -> tag_ok c -> Forall basic_op ops -> Forall tick_ok ops ->
  (0 <= t0 + ts_e c off)%Z -> (t0 + elapsed ops + ts_e c off < sec_max)%Z -> (N.of_nat (length ops) <= usize_max)%N ->
  (names (wfs (s_w (fst (run (sys0 t0 off) (OStart c :: ops ++ [OStop]))))) = [] <-> has_write ops = false).
Proof.
  intros Hcfg T Hb Htk Hlo Hhi Hmax.
  destruct (run_view_ts c crit t0 off ops Hcfg T Hb Htk Hlo Hhi Hmax) as [x0 [ob0 [E0 [V _]]]]. cbv zeta in V.
  rewrite <- (t_run_none_iff crit off ops Hb t0).
  destruct (t_run crit off None t0 ops) as [[cl [st cu]]|]; cbn [untime] in V.
  - split; [|discriminate]. intros Hn. exfalso. destruct V as [keys [[_ [_ [[j [L _]] _]]] _]].
    rewrite lookup_empty in L by assumption. discriminate.
  - split; [reflexivity|]. intros _. exact V.
Qed.
Print Assumptions timestamps_empty_iff.

(* the reader (Oracles/ReaderOrder.v: time stamp, then restart counter, rCURRENT last) applied to the snapshot of the final
   directory finds the greedy partition: the executable oracle of C08 accepts *)
Corollary timestamps_oracle_C08 c m t0 off ops :
  tscfg c (CSize m) -> tag_ok c -> not_gz c -> Forall basic_op ops -> Forall tick_ok ops ->
  (0 <= t0 + ts_e c off)%Z -> (t0 + elapsed ops + ts_e c off < sec_max)%Z -> (N.of_nat (length ops) <= usize_max)%N ->
  oracle_C08 m None (items false ops) (family_in_order c (snap_of (fst (run (sys0 t0 off) (OStart c :: ops ++ [OStop]))))) = true.
Proof.
  intros Hcfg T G Hb Htk Hlo Hhi Hmax. unfold oracle_C08.
  destruct (timestamps_partition c m t0 off ops Hcfg T Hb Htk Hlo Hhi Hmax) as [[_ [Ef Hn]]|[keys [cl [cu [_ [Ef [V [K Rg]]]]]]]];
    cbv zeta in *; rewrite Ef.
  - rewrite snap_of_list. unfold snap_list, dir_names. rewrite Hn. reflexivity.
  - assert (Y : years_ok (ts_e c off) t0 (t0 + elapsed ops)) by (split; assumption).
    pose proof (ts_reader_order c (CSize m) _ _ _ _ keys cl cu Hcfg G Y Rg K V) as E. rewrite <- snap_of_list in E.
    rewrite E. apply list_beq_refl.
Qed.
Print Assumptions timestamps_oracle_C08.

(* what the reader finds IS the partition (the oracle is the comparison with expected_files) *)
Corollary timestamps_reader_partition c m t0 off ops :
  tscfg c (CSize m) -> tag_ok c -> not_gz c -> Forall basic_op ops -> Forall tick_ok ops ->
  (0 <= t0 + ts_e c off)%Z -> (t0 + elapsed ops + ts_e c off < sec_max)%Z -> (N.of_nat (length ops) <= usize_max)%N ->
  family_in_order c (snap_of (fst (run (sys0 t0 off) (OStart c :: ops ++ [OStop])))) = expected_files m None (items false ops).
Proof.
  intros Hcfg T G Hb Htk Hlo Hhi Hmax.
  destruct (timestamps_partition c m t0 off ops Hcfg T Hb Htk Hlo Hhi Hmax) as [[_ [Ef Hn]]|[keys [cl [cu [_ [Ef [V [K Rg]]]]]]]];
    cbv zeta in *; rewrite Ef.
  - rewrite snap_of_list. unfold snap_list, dir_names. rewrite Hn. reflexivity.
  - assert (Y : years_ok (ts_e c off) t0 (t0 + elapsed ops)) by (split; assumption).
    pose proof (ts_reader_order c (CSize m) _ _ _ _ keys cl cu Hcfg G Y Rg K V) as E. rewrite <- snap_of_list in E. exact E.
Qed.

(* ------------------------------------------------------------------ examples (non-vacuity) *)
Import String.StringSyntax.
Open Scope string_scope.

(* a size limit of 3 bytes, a buffer of 3 bytes, append; the history of NumDTheorems.exd_ops: a trigger before the first
   record, buffered records, a clock tick, a rotation by size, a trigger at the end *)
Definition tsz_c : config := ext_cfg (ex_sp "log") true (CSize 3) (Some 3%nat) false.
Lemma tsz_c_ok : tscfg tsz_c (CSize 3).
Proof. apply ext_cfg_ok. reflexivity. Qed.
Lemma tsz_c_tag_ok : tag_ok tsz_c.
Proof. apply tag_free_ok. split; vm_compute; reflexivity. Qed.
Lemma tsz_c_not_gz : not_gz tsz_c.
Proof. vm_compute. reflexivity. Qed.

(* the directory that the model computes, and what the oracle expects: the write of "ef" finds "abcd" (4 > 3) and rotates -
   "abcd" gets the second of its creation, 0 -, the write of "hi" finds "g" and does not; the first trigger (before the first
   record) leaves no trace, the second one closes "ef" (created in second 3), the last one closes "ghi" (created in second 3 as
   well: restart-0000) and leaves an empty rCURRENT *)
Example ts_partition_dir :
  snap_of (fst (run (sys0 0 0) (OStart tsz_c :: exd_ops ++ [OStop])))
  = [ (bs "app_r1970-01-01_00-00-00.log", 0%N, bs "abcd");
      (bs "app_r1970-01-01_00-00-03.log", 0%N, bs "ef");
      (bs "app_r1970-01-01_00-00-03.restart-0000.log", 0%N, bs "ghi");
      (bs "app_rCURRENT.log", 0%N, bs "") ]
  /\ expected_files 3 None (items false exd_ops) = [bs "abcd"; bs "ef"; bs "ghi"; bs ""].
Proof. split; vm_compute; reflexivity. Qed.

(* the theorem applies: its hypotheses can be met, and it yields this view *)
Example ts_partition_instance :
  exists keys,
    ts_view tsz_c 0 (wfs (s_w (fst (run (sys0 0 0) (OStart tsz_c :: exd_ops ++ [OStop]))))) keys [bs "abcd"; bs "ef"; bs "ghi"] (bs "")
    /\ length keys = 3 /\ keys_ok keys /\ (forall k, In k keys -> (0 <= fst k <= 3)%Z).
Proof.
  apply (timestamps_partition_last tsz_c 3 0 0 exd_ops tsz_c_ok tsz_c_tag_ok exd_ops_basic exd_ops_ticks).
  - change (0 <= 0)%Z. lia.
  - change (3 < sec_max)%Z. unfold sec_max. lia.
  - vm_compute. discriminate.
  - reflexivity.
Qed.

(* the rotation flags of the writes, as computed: only the write of "ef" rotates; and by the theorem *)
Example ts_partition_flags :
  List.map rot_of (snd (run (sys0 0 0) (OStart tsz_c :: exd_ops)))
  = [false; false; false; false; true; false; false; false; false; false; false].
Proof. vm_compute. reflexivity. Qed.

Example ts_rotates_instance :
  nth_error (snd (run (sys0 0 0) (OStart tsz_c :: exd_ops))) 4 = Some (ObsRes 0 true).
Proof.
  rewrite (timestamps_rotates_iff tsz_c 3 0 0 exd_ops 3 (OWrite (bs "ef")) (bs "ef") tsz_c_ok tsz_c_tag_ok exd_ops_basic exd_ops_ticks).
  - vm_compute. reflexivity.
  - change (0 <= 0)%Z. lia.
  - change (3 < sec_max)%Z. unfold sec_max. lia.
  - vm_compute. discriminate.
  - reflexivity.
  - left. reflexivity.
Qed.

(* the oracle accepts the reader's view of this directory: computed, and by the theorem *)
Example ts_oracle_C08_computed :
  family_in_order tsz_c (snap_of (fst (run (sys0 0 0) (OStart tsz_c :: exd_ops ++ [OStop]))))
  = [bs "abcd"; bs "ef"; bs "ghi"; bs ""]
  /\ oracle_C08 3 None (items false exd_ops)
       (family_in_order tsz_c (snap_of (fst (run (sys0 0 0) (OStart tsz_c :: exd_ops ++ [OStop]))))) = true.
Proof. split; vm_compute; reflexivity. Qed.

Example ts_oracle_C08_instance :
  oracle_C08 3 None (items false exd_ops)
    (family_in_order tsz_c (snap_of (fst (run (sys0 0 0) (OStart tsz_c :: exd_ops ++ [OStop]))))) = true.
Proof.
  apply (timestamps_oracle_C08 tsz_c 3 0 0 exd_ops tsz_c_ok tsz_c_tag_ok tsz_c_not_gz exd_ops_basic exd_ops_ticks).
  - change (0 <= 0)%Z. lia.
  - change (3 < sec_max)%Z. unfold sec_max. lia.
  - vm_compute. discriminate.
Qed.

(* a history that ends right after a rotation by size: the record that caused it is alone in rCURRENT.  The closed file
   "efghij" was created in second 0 (by the rotation in the write of "ef") and closed in second 2: its name carries second 0,
   and since "abcd" carries it too, the restart counter 0000 *)
Definition tsz_ops2 : list op := [OWrite (bs "abcd"); OWrite (bs "ef"); OTick 2; OWrite (bs "ghij"); OPlain (bs "k")].
Example ts_partition_ends_with_rotation :
  snap_of (fst (run (sys0 0 0) (OStart tsz_c :: tsz_ops2 ++ [OStop])))
  = [ (bs "app_r1970-01-01_00-00-00.log", 0%N, bs "abcd");
      (bs "app_r1970-01-01_00-00-00.restart-0000.log", 0%N, bs "efghij");
      (bs "app_rCURRENT.log", 0%N, bs "k") ]
  /\ expected_files 3 None (items false tsz_ops2) = [bs "abcd"; bs "efghij"; bs "k"]
  /\ List.map rot_of (snd (run (sys0 0 0) (OStart tsz_c :: tsz_ops2))) = [false; false; true; false; false; true].
Proof. repeat split; vm_compute; reflexivity. Qed.

(* a history without a record: nothing is expected, nothing is created *)
Example ts_partition_no_write :
  snap_of (fst (run (sys0 0 0) (OStart tsz_c :: [OTrigger; OFlush; OTick 5; OTrigger] ++ [OStop]))) = []
  /\ expected_files 3 None (items false [OTrigger; OFlush; OTick 5; OTrigger]) = [].
Proof. split; vm_compute; reflexivity. Qed.
