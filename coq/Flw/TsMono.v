(* The time-stamp text is monotone: a later instant (of the years 1970..9999) has the greater text in byte order. *)
Require Import FL.Base.Bytes FL.Base.BytesFacts FL.Time.Civil FL.Time.CivilFacts FL.Time.Period FL.Time.TsFormat
  FL.Names.NamesFacts FL.Names.SortFacts FL.Flw.TsTime.
From Coq Require Import ZifyN ZifyNat ZifyBool.
Open Scope Z_scope.

(* ------------------------------------------------------------------ the broken-down time grows with the instant *)
Definition clt (a b : civil) : Prop :=
  cy a < cy b \/ (cy a = cy b /\ (cmo a < cmo b \/ (cmo a = cmo b /\ (cd a < cd b \/ (cd a = cd b /\
  (ch a < ch b \/ (ch a = ch b /\ (cmi a < cmi b \/ (cmi a = cmi b /\ cs a < cs b))))))))).

Lemma civil_of_mono t t' : t < t' -> clt (civil_of t) (civil_of t').
Proof.
  intros H. unfold clt.
  destruct (civil_of_hms t) as (Hh & Hm & Hs & E), (civil_of_hms t') as (Hh' & Hm' & Hs' & E').
  destruct (Z_lt_ge_dec (t / 86400) (t' / 86400)) as [Hd|Hd].
  - pose proof (civil_from_days_mono _ _ Hd) as L. rewrite !civil_of_date in L. unfold lex3 in L. lia.
  - assert (D : t / 86400 = t' / 86400 /\ t mod 86400 < t' mod 86400) by (Z.div_mod_to_equations; lia).
    pose proof (same_day_eqb t t') as X. cbv zeta in X. rewrite (proj1 D), Z.eqb_refl in X. lia.
Qed.

(* ------------------------------------------------------------------ byte order of the texts *)
Open Scope nat_scope.
Lemma lex_lt_app a : forall b x y, length a = length b ->
  lex_lt (a ++ x) (b ++ y) = lex_lt a b || (beq a b && lex_lt x y).
Proof.
  induction a as [|p a IH]; intros [|q b] x y Hl; try discriminate.
  - cbn [app lex_lt beq]. destruct x, y; reflexivity.
  - injection Hl as Hl. cbn [app lex_lt beq]. rewrite (IH b x y Hl).
    destruct (N.ltb_spec p q), (N.eqb_spec p q); cbn [orb andb]; try reflexivity; lia.
Qed.

Lemma lex_lt_cons_same p x y : lex_lt (p :: x) (p :: y) = lex_lt x y.
Proof. cbn [lex_lt]. rewrite N.ltb_irrefl, N.eqb_refl. reflexivity. Qed.

Lemma pad_dec_lt w z z' : (0 <= z)%Z -> (0 <= z')%Z -> length (pad_dec w z) = length (pad_dec w z') ->
  lex_lt (pad_dec w z) (pad_dec w z') = (z <? z')%Z /\ beq (pad_dec w z) (pad_dec w z') = (z =? z')%Z.
Proof.
  intros H H' Hl. split.
  - rewrite (lex_lt_value _ _ (pad_dec_digits w z) (pad_dec_digits w z') Hl), !pad_dec_value. lia.
  - destruct (beq_spec (pad_dec w z) (pad_dec w z')) as [E|N].
    + apply pad_dec_inj in E; lia.
    + destruct (Z.eqb_spec z z') as [->|]; [congruence | reflexivity].
Qed.

Lemma lex_field w z z' x y : (0 <= z)%Z -> (0 <= z')%Z -> length (pad_dec w z) = length (pad_dec w z') ->
  lex_lt (pad_dec w z ++ x) (pad_dec w z' ++ y) = (z <? z')%Z || ((z =? z')%Z && lex_lt x y).
Proof. intros H H' Hl. rewrite (lex_lt_app _ _ x y Hl). destruct (pad_dec_lt w z z' H H' Hl) as [-> ->]. reflexivity. Qed.

Lemma std_text_mono c c' : civil_ok c -> civil_ok c' -> clt c c' -> lex_lt (std_text c) (std_text c') = true.
Proof.
  intros [Y Mo D Hh Mi S] [Y' Mo' D' Hh' Mi' S'] L.
  unfold std_text. rewrite lex_lt_cons_same.
  rewrite lex_field by (try lia; rewrite !pad_dec_length4 by lia; reflexivity). rewrite lex_lt_cons_same.
  rewrite lex_field by (try lia; rewrite !pad_dec_length2 by lia; reflexivity). rewrite lex_lt_cons_same.
  rewrite lex_field by (try lia; rewrite !pad_dec_length2 by lia; reflexivity). rewrite lex_lt_cons_same.
  rewrite lex_field by (try lia; rewrite !pad_dec_length2 by lia; reflexivity). rewrite lex_lt_cons_same.
  rewrite lex_field by (try lia; rewrite !pad_dec_length2 by lia; reflexivity). rewrite lex_lt_cons_same.
  rewrite <- (app_nil_r (pad_dec 2 (cs c))), <- (app_nil_r (pad_dec 2 (cs c'))).
  rewrite lex_field by (try lia; rewrite !pad_dec_length2 by lia; reflexivity). cbn [lex_lt]. rewrite andb_false_r, orb_false_r.
  unfold clt in L. lia.
Qed.

Lemma tsx_mono e t t' : in_years e t -> in_years e t' -> (t < t')%Z -> lex_lt (tsx e t) (tsx e t') = true.
Proof.
  intros H H' L. destruct (tsx_text e t H) as [-> Ok], (tsx_text e t' H') as [-> Ok'].
  apply std_text_mono; [exact Ok | exact Ok' | apply civil_of_mono; lia].
Qed.
