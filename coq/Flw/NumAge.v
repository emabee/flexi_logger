(* Numbers naming with an age criterion (or age-or-size): end-to-end statements about whole runs from an empty
   directory.  C09: each file holds the records of exactly one period of the local clock; a new file is started at
   the first write in another period (and, with age-or-size, when the size limit is exceeded; and by rotate()). *)
Require Import FL.Base.Bytes FL.Base.BytesFacts FL.Fs.Fs FL.Time.Period FL.Names.FileSpec FL.Flw.Model
  FL.Flw.ModelFacts FL.Flw.NumInv FL.Flw.Run FL.Flw.RunFacts FL.Flw.NumRun FL.Oracles.O_Age FL.Flw.NumTheorems
  FL.Flw.NumAgeInv.
Open Scope nat_scope.

(* ------------------------------------------------------------------ the timed history *)
(* every write and every trigger, annotated with the clock value at which it happens: t0 + the ticks before it *)
Fixpoint titems (t : Z) (ops : list op) : list titem :=
  match ops with
  | [] => []
  | o :: r => match o with OWrite b | OPlain b => [TRec t b] | OTrigger => [TTrig t] | _ => [] end ++ titems (clock t o) r
  end.

Definition tfiles (v : tview) : list tfile := match v with None => [] | Some (cl, cur) => cl ++ [cur] end.
Definition tcl (v : tview) : list (Z * bytes) := match v with None => [] | Some (cl, _) => cl end.
Definition tcu (v : tview) : option (Z * bytes) := match v with None => None | Some (_, cur) => Some cur end.

Definition age_of (crit : criterion) : option age := fst (crit_parts crit).
Definition lim_of (crit : criterion) : option N := snd (crit_parts crit).

(* the timed specification is the oracle's partition *)
Lemma t_run_partition crit off ops : forall v t,
  tfiles (t_run crit off v t ops) = tpartition (age_of crit) (lim_of crit) off (tcl v) (tcu v) (titems t ops).
Proof.
  induction ops as [|o r IH]; intros v t.
  - destruct v as [[cl cur]|]; cbn; rewrite ?app_nil_r; reflexivity.
  - cbn [t_run titems]. rewrite IH. unfold age_of, lim_of.
    destruct o; cbn [t_step clock app]; try reflexivity.
    + destruct v as [[cl [st cu]]|]; cbn [tpartition tcl tcu]; [|reflexivity]. unfold due.
      destruct (rotate_due (fst (crit_parts crit)) (snd (crit_parts crit)) off st cu t); reflexivity.
    + destruct v as [[cl [st cu]]|]; cbn [tpartition tcl tcu]; [|reflexivity]. unfold due.
      destruct (rotate_due (fst (crit_parts crit)) (snd (crit_parts crit)) off st cu t); reflexivity.
    + destruct v as [[cl [st cu]]|]; cbn [tpartition tcl tcu]; reflexivity.
Qed.

Definition last_opt {A} (l : list A) : option A := match rev l with [] => None | x :: _ => Some x end.

Lemma tfiles_last v : last_opt (tfiles v) = tcu v.
Proof. destruct v as [[cl cur]|]; [|reflexivity]. unfold last_opt. cbn [tfiles tcu]. rewrite rev_app_distr. reflexivity. Qed.

Lemma files_of_untime v : files_of (untime v) = List.map snd (tfiles v).
Proof. destruct v as [[cl [st cu]]|]; [|reflexivity]. cbn [untime files_of tfiles]. rewrite map_app. reflexivity. Qed.

Lemma start_relT c crit t0 off : RelT c crit (fst (step (sys0 t0 off) (OStart c))) None.
Proof. cbn. repeat split. Qed.
Lemma start_clock c t0 off : wnow (s_w (fst (step (sys0 t0 off) (OStart c)))) = t0 /\ woff (s_w (fst (step (sys0 t0 off) (OStart c)))) = off.
Proof. split; reflexivity. Qed.

Lemma list_beq2_refl l : list_beq2 l l = true.
Proof. induction l as [|x r IH]; [reflexivity|]. cbn [list_beq2]. rewrite beq_refl. exact IH. Qed.

(* ------------------------------------------------------------------ the rotation flags *)
(* The flag observed for the i-th operation, a write at clock value t = t0 + the ticks before it, is the oracle's
   decision `rotate_due` on the state before it: the start instant and the content (disk + buffer) of the current
   file, which is the last file of the oracle's partition of the history so far.  No file yet: no rotation. *)
Theorem numbers_age_flags c crit t0 off ops i o b :
  numcfg c crit -> Forall basic_op ops -> nth_error ops i = Some o -> (o = OWrite b \/ o = OPlain b) ->
  nth_error (snd (run (sys0 t0 off) (OStart c :: ops))) (S i)
  = Some (ObsRes 0
      match last_opt (tpartition (age_of crit) (lim_of crit) off [] None (titems t0 (firstn i ops))) with
      | None => false
      | Some (start, content) => rotate_due (age_of crit) (lim_of crit) off start content (clock_run t0 (firstn i ops))
      end).
Proof.
  intros Hcfg Hb Hi Ho. cbn [run]. destruct (step (sys0 t0 off) (OStart c)) as [x0 ob0] eqn:E0.
  pose proof (start_relT c crit t0 off) as R0. pose proof (start_clock c t0 off) as [N0 O0]. rewrite E0 in R0, N0, O0. cbn [fst] in R0, N0, O0.
  pose proof (run_relT c crit Hcfg ops x0 None R0 Hb) as [_ [_ [_ Hr]]]. rewrite N0, O0 in Hr.
  destruct (run x0 ops) as [x1 obs1]. cbn [snd nth_error] in *. rewrite (Hr i o Hi b Ho). do 2 f_equal.
  pose proof (t_run_partition crit off (firstn i ops) None t0) as P. cbn [tcl tcu] in P. rewrite <- P, tfiles_last.
  unfold t_flag, tcu, due, age_of, lim_of. destruct (t_run crit off None t0 (firstn i ops)) as [[cl [st cu]]|]; reflexivity.
Qed.

(* the same for the two criteria, the decision spelled out *)
Corollary numbers_age_flags_age c a t0 off ops i o b :
  numcfg c (CAge a) -> Forall basic_op ops -> nth_error ops i = Some o -> (o = OWrite b \/ o = OPlain b) ->
  nth_error (snd (run (sys0 t0 off) (OStart c :: ops))) (S i)
  = Some (ObsRes 0
      match last_opt (tpartition (Some a) None off [] None (titems t0 (firstn i ops))) with
      | None => false
      | Some (start, _) => negb (period_of a (start + off) =? period_of a (clock_run t0 (firstn i ops) + off))%Z
      end).
Proof.
  intros Hcfg Hb Hi Ho. rewrite (numbers_age_flags c (CAge a) t0 off ops i o b Hcfg Hb Hi Ho). do 2 f_equal.
  cbn [age_of lim_of crit_parts fst snd]. destruct (last_opt _) as [[st cu]|]; [|reflexivity].
  unfold rotate_due. apply Bool.orb_false_r.
Qed.

Corollary numbers_age_flags_age_or_size c a m t0 off ops i o b :
  numcfg c (CAgeOrSize a m) -> Forall basic_op ops -> nth_error ops i = Some o -> (o = OWrite b \/ o = OPlain b) ->
  nth_error (snd (run (sys0 t0 off) (OStart c :: ops))) (S i)
  = Some (ObsRes 0
      match last_opt (tpartition (Some a) (Some m) off [] None (titems t0 (firstn i ops))) with
      | None => false
      | Some (start, content) =>
        negb (period_of a (start + off) =? period_of a (clock_run t0 (firstn i ops) + off))%Z
        || (m <? N.of_nat (length content))%N
      end).
Proof.
  intros Hcfg Hb Hi Ho. rewrite (numbers_age_flags c (CAgeOrSize a m) t0 off ops i o b Hcfg Hb Hi Ho). reflexivity.
Qed.

(* ------------------------------------------------------------------ the files *)
(* After the writer is stopped, the files r00000.., rCURRENT hold exactly the contents the oracle computes from the
   timed history: `oracle_C09_partition` holds on the model's own output, for every history. *)
Theorem numbers_age_partition c crit t0 off ops :
  numcfg c crit -> Forall basic_op ops ->
  reads c (wfs (s_w (fst (run (sys0 t0 off) (OStart c :: ops ++ [OStop])))))
        (List.map snd (tpartition (age_of crit) (lim_of crit) off [] None (titems t0 ops))).
Proof.
  intros Hcfg Hb. cbn [run]. destruct (step (sys0 t0 off) (OStart c)) as [x0 ob0] eqn:E0.
  pose proof (start_relT c crit t0 off) as R0. pose proof (start_clock c t0 off) as [N0 O0]. rewrite E0 in R0, N0, O0. cbn [fst] in R0, N0, O0.
  rewrite run_app. pose proof (run_relT c crit Hcfg ops x0 None R0 Hb) as [R1 _]. rewrite N0, O0 in R1.
  destruct (run x0 ops) as [x1 obs1]. cbn [fst snd] in *.
  pose proof (stop_rel c crit x1 _ Hcfg (RelT_Rel _ _ _ _ R1)) as S. cbn [run]. destruct (step x1 OStop) as [x2 ob2]. cbn [fst].
  pose proof (t_run_partition crit off ops None t0) as P. cbn [tcl tcu] in P. rewrite <- P, <- files_of_untime.
  apply files_of_reads. exact S.
Qed.

Corollary numbers_age_oracle c crit t0 off ops :
  numcfg c crit -> Forall basic_op ops ->
  exists files, reads c (wfs (s_w (fst (run (sys0 t0 off) (OStart c :: ops ++ [OStop]))))) files
    /\ oracle_C09_partition crit off None (titems t0 ops) files = true.
Proof.
  intros Hcfg Hb. eexists. split; [exact (numbers_age_partition c crit t0 off ops Hcfg Hb)|].
  unfold oracle_C09_partition, age_of, lim_of. destruct (crit_parts crit) as [a lim]. apply list_beq2_refl.
Qed.

(* ------------------------------------------------------------------ the property, without the oracle *)
(* The record-level view: a file is the list of the records written into it, each with its instant; a file has a
   start instant and the information whether it was started by rotate() (OTrigger). *)
Record rfile := { rstart : Z; rtrig : bool; rrecs : list (Z * bytes) }.
Definition rbytes (f : rfile) : bytes := concat (List.map snd (rrecs f)).
Definition rview := option (list rfile * rfile).

Definition r_step (crit : criterion) (off : Z) (v : rview) (t : Z) (o : op) : rview :=
  match o with
  | OWrite b | OPlain b =>
    match v with
    | None => Some ([], {| rstart := t; rtrig := false; rrecs := [(t, b)] |})
    | Some (cl, cur) =>
      if due crit off (rstart cur) (rbytes cur) t
      then Some (cl ++ [cur], {| rstart := t; rtrig := false; rrecs := [(t, b)] |})
      else Some (cl, {| rstart := rstart cur; rtrig := rtrig cur; rrecs := rrecs cur ++ [(t, b)] |})
    end
  | OTrigger => match v with Some (cl, cur) => Some (cl ++ [cur], {| rstart := t; rtrig := true; rrecs := [] |}) | None => None end
  | _ => v
  end.

Fixpoint r_run (crit : criterion) (off : Z) (v : rview) (t : Z) (ops : list op) : rview :=
  match ops with
  | [] => v
  | o :: r => r_run crit off (r_step crit off v t o) (clock t o) r
  end.

Definition forget_file (f : rfile) : tfile := (rstart f, rbytes f).
Definition forget (v : rview) : tview :=
  match v with None => None | Some (cl, cur) => Some (List.map forget_file cl, forget_file cur) end.
Definition rfiles (v : rview) : list rfile := match v with None => [] | Some (cl, cur) => cl ++ [cur] end.

Lemma rbytes_snoc st tr recs t b :
  rbytes {| rstart := st; rtrig := tr; rrecs := recs ++ [(t, b)] |} = concat (List.map snd recs) ++ b.
Proof. unfold rbytes. cbn [rrecs]. rewrite map_app, concat_app. cbn. rewrite app_nil_r. reflexivity. Qed.

Lemma r_step_forget crit off v t o : forget (r_step crit off v t o) = t_step crit off (forget v) t o.
Proof.
  destruct o; try reflexivity.
  - destruct v as [[cl cur]|]; cbn [r_step t_step forget forget_file].
    + destruct (due crit off (rstart cur) (rbytes cur) t); cbn [forget].
      * rewrite map_app. unfold forget_file, rbytes. cbn. rewrite app_nil_r. reflexivity.
      * unfold forget_file at 2. cbn [rstart]. rewrite rbytes_snoc. reflexivity.
    + unfold forget_file, rbytes. cbn. rewrite app_nil_r. reflexivity.
  - destruct v as [[cl cur]|]; cbn [r_step t_step forget forget_file].
    + destruct (due crit off (rstart cur) (rbytes cur) t); cbn [forget].
      * rewrite map_app. unfold forget_file, rbytes. cbn. rewrite app_nil_r. reflexivity.
      * unfold forget_file at 2. cbn [rstart]. rewrite rbytes_snoc. reflexivity.
    + unfold forget_file, rbytes. cbn. rewrite app_nil_r. reflexivity.
  - destruct v as [[cl cur]|]; cbn [r_step t_step forget]; [|reflexivity]. rewrite map_app. reflexivity.
Qed.

Lemma r_run_forget crit off ops : forall v t, forget (r_run crit off v t ops) = t_run crit off (forget v) t ops.
Proof. induction ops as [|o r IH]; intros v t; [reflexivity|]. cbn [r_run t_run]. rewrite IH, r_step_forget. reflexivity. Qed.

Lemma tfiles_forget v : List.map snd (tfiles (forget v)) = List.map rbytes (rfiles v).
Proof.
  destruct v as [[cl cur]|]; [|reflexivity]. cbn [forget tfiles rfiles]. rewrite !map_app, map_map. reflexivity.
Qed.

(* the records and the effective triggers of a history, with their instants *)
Fixpoint trecs (t : Z) (ops : list op) : list (Z * bytes) :=
  match ops with
  | [] => []
  | o :: r => match o with OWrite b | OPlain b => [(t, b)] | _ => [] end ++ trecs (clock t o) r
  end.
(* rotate() before the first write does nothing: no file has been opened yet (lazy initialisation) *)
Fixpoint trig_times (started : bool) (t : Z) (ops : list op) : list Z :=
  match ops with
  | [] => []
  | o :: r =>
    match o with
    | OWrite _ | OPlain _ => trig_times true t r
    | OTrigger => (if started then [t] else []) ++ trig_times started t r
    | _ => trig_times started (clock t o) r
    end
  end.

Definition started_of (v : rview) : bool := match v with Some _ => true | None => false end.

(* -- it is a partition of the records, in order -- *)
Lemma r_run_recs crit off ops : forall v t,
  concat (List.map rrecs (rfiles (r_run crit off v t ops))) = concat (List.map rrecs (rfiles v)) ++ trecs t ops.
Proof.
  induction ops as [|o r IH]; intros v t; [cbn; rewrite app_nil_r; reflexivity|].
  cbn [r_run trecs]. rewrite IH. rewrite app_assoc. f_equal.
  destruct o; cbn [r_step]; rewrite ?app_nil_r; try reflexivity.
  - destruct v as [[cl cur]|]; [|reflexivity]. destruct (due crit off (rstart cur) (rbytes cur) t); cbn [rfiles].
    + rewrite !map_app, !concat_app. cbn. rewrite !app_nil_r. reflexivity.
    + rewrite !map_app, !concat_app. cbn. rewrite !app_nil_r, app_assoc. reflexivity.
  - destruct v as [[cl cur]|]; [|reflexivity]. destruct (due crit off (rstart cur) (rbytes cur) t); cbn [rfiles].
    + rewrite !map_app, !concat_app. cbn. rewrite !app_nil_r. reflexivity.
    + rewrite !map_app, !concat_app. cbn. rewrite !app_nil_r, app_assoc. reflexivity.
  - destruct v as [[cl cur]|]; [|reflexivity]. cbn [rfiles]. rewrite !map_app, !concat_app. cbn. rewrite !app_nil_r. reflexivity.
Qed.

(* -- the files started by rotate() are exactly the effective triggers, with their instants -- *)
Definition trig_starts (l : list rfile) : list Z := List.map rstart (filter rtrig l).

Lemma trig_starts_app l1 l2 : trig_starts (l1 ++ l2) = trig_starts l1 ++ trig_starts l2.
Proof. unfold trig_starts. rewrite filter_app, map_app. reflexivity. Qed.

Lemma r_run_trigs crit off ops : forall v t,
  trig_starts (rfiles (r_run crit off v t ops)) = trig_starts (rfiles v) ++ trig_times (started_of v) t ops.
Proof.
  induction ops as [|o r IH]; intros v t; [cbn; rewrite app_nil_r; reflexivity|].
  cbn [r_run]. rewrite IH.
  destruct o; cbn [r_step trig_times clock]; try reflexivity.
  - destruct v as [[cl cur]|]; [|reflexivity]. destruct (due crit off (rstart cur) (rbytes cur) t); cbn [rfiles started_of].
    + rewrite !trig_starts_app. cbn. rewrite !app_nil_r. reflexivity.
    + rewrite !trig_starts_app. unfold trig_starts. cbn [filter rtrig]. destruct (rtrig cur); reflexivity.
  - destruct v as [[cl cur]|]; [|reflexivity]. destruct (due crit off (rstart cur) (rbytes cur) t); cbn [rfiles started_of].
    + rewrite !trig_starts_app. cbn. rewrite !app_nil_r. reflexivity.
    + rewrite !trig_starts_app. unfold trig_starts. cbn [filter rtrig]. destruct (rtrig cur); reflexivity.
  - destruct v as [[cl cur]|]; cbn [rfiles started_of]; [|reflexivity].
    rewrite (trig_starts_app (cl ++ [cur])). cbn. rewrite <- app_assoc. reflexivity.
Qed.

(* -- one period per file; the start of a file -- *)
Definition one_period (a : age) (off : Z) (f : rfile) : Prop :=
  forall t b, In (t, b) (rrecs f) -> period_of a (t + off) = period_of a (rstart f + off).
(* a file not started by rotate() starts with (and at the instant of) its first record *)
Definition starts_with_record (f : rfile) : Prop :=
  rtrig f = false -> exists b rest, rrecs f = (rstart f, b) :: rest.

Lemma not_due_same_period crit a off st cu t :
  age_of crit = Some a -> due crit off st cu t = false -> period_of a (t + off) = period_of a (st + off).
Proof.
  unfold due, age_of, rotate_due. intros ->. intros H. apply Bool.orb_false_iff in H. destruct H as [H _].
  apply Bool.negb_false_iff, Z.eqb_eq in H. symmetry. exact H.
Qed.

Lemma r_step_files_ok crit a off v t o :
  age_of crit = Some a ->
  Forall (fun f => one_period a off f /\ starts_with_record f) (rfiles v) ->
  Forall (fun f => one_period a off f /\ starts_with_record f) (rfiles (r_step crit off v t o)).
Proof.
  intros Ha H.
  assert (New : forall b, one_period a off {| rstart := t; rtrig := false; rrecs := [(t, b)] |}
                          /\ starts_with_record {| rstart := t; rtrig := false; rrecs := [(t, b)] |}).
  { intros b. split.
    - intros t' b' [E|[]]. injection E as <- <-. reflexivity.
    - intros _. exists b, []. reflexivity. }
  assert (W : forall b, Forall (fun f => one_period a off f /\ starts_with_record f) (rfiles (r_step crit off v t (OWrite b)))).
  { intros b. cbn [r_step]. destruct v as [[cl cur]|]; [|constructor; [apply New | constructor]].
    cbn [rfiles] in H. apply Forall_app in H. destruct H as [Hcl Hcur].
    destruct (due crit off (rstart cur) (rbytes cur) t) eqn:D; cbn [rfiles].
    - apply Forall_app. split; [apply Forall_app; split; assumption|]. constructor; [apply New | constructor].
    - apply Forall_app. split; [exact Hcl|]. constructor; [|constructor].
      inversion Hcur as [|f l [P1 P2] _]; subst. split.
      + intros t' b' Hin. cbn [rrecs rstart] in *. apply in_app_or in Hin. destruct Hin as [Hin|[E|[]]].
        * exact (P1 t' b' Hin).
        * injection E as <- <-. exact (not_due_same_period crit a off _ _ _ Ha D).
      + intros Htr. cbn [rtrig rrecs rstart] in *. destruct (P2 Htr) as [b0 [rest E]]. rewrite E. exists b0, (rest ++ [(t, b)]). reflexivity. }
  destruct o; try exact H.
  - apply W.
  - exact (W b).
  - cbn [r_step]. destruct v as [[cl cur]|]; [|exact H]. cbn [rfiles] in *.
    apply Forall_app. split; [exact H|]. constructor; [|constructor]. split.
    + intros t' b' [].
    + intros Htr. discriminate Htr.
Qed.

Lemma r_run_files_ok crit a off ops : age_of crit = Some a -> forall v t,
  Forall (fun f => one_period a off f /\ starts_with_record f) (rfiles v) ->
  Forall (fun f => one_period a off f /\ starts_with_record f) (rfiles (r_run crit off v t ops)).
Proof.
  intros Ha. induction ops as [|o r IH]; intros v t H; [exact H|].
  cbn [r_run]. apply IH. apply r_step_files_ok; assumption.
Qed.

(* -- consecutive files: a file not started by rotate() was started because the rotation was due -- *)
Fixpoint chain {A} (P : A -> A -> Prop) (l : list A) : Prop :=
  match l with
  | x :: (y :: _) as r => P x y /\ chain P r
  | _ => True
  end.

Lemma chain_snoc {A} (P : A -> A -> Prop) l x y : chain P (l ++ [x]) -> P x y -> chain P ((l ++ [x]) ++ [y]).
Proof.
  induction l as [|z l IH]; intros H Hxy; [cbn; auto|].
  destruct l as [|z' l]; cbn [app chain] in *; [tauto|]. destruct H as [H1 H2]. split; [exact H1|]. apply IH; assumption.
Qed.

Lemma chain_last {A} (P : A -> A -> Prop) l x x' : (forall z, P z x -> P z x') -> chain P (l ++ [x]) -> chain P (l ++ [x']).
Proof.
  intros HP. induction l as [|z l IH]; intros H; [exact Logic.I|].
  destruct l as [|z' l]; cbn [app chain] in *.
  - split; [apply HP; apply H | exact Logic.I].
  - destruct H as [H1 H2]. split; [exact H1 | apply IH; exact H2].
Qed.

Lemma chain_nth {A} (P : A -> A -> Prop) l : chain P l ->
  forall i x y, nth_error l i = Some x -> nth_error l (S i) = Some y -> P x y.
Proof.
  induction l as [|z l IH]; intros H i x y Hx Hy; [destruct i; discriminate|].
  destruct l as [|z' l]; [destruct i; discriminate|]. cbn [chain] in H. destruct H as [H1 H2].
  destruct i as [|i].
  - cbn in Hx, Hy. injection Hx as <-. injection Hy as <-. exact H1.
  - exact (IH H2 i x y Hx Hy).
Qed.

Definition was_due (crit : criterion) (off : Z) (f1 f2 : rfile) : Prop :=
  rtrig f2 = false -> due crit off (rstart f1) (rbytes f1) (rstart f2) = true.

Lemma r_step_chain crit off v t o :
  chain (was_due crit off) (rfiles v) -> chain (was_due crit off) (rfiles (r_step crit off v t o)).
Proof.
  intros H.
  assert (W : forall b, chain (was_due crit off) (rfiles (r_step crit off v t (OWrite b)))).
  { intros b. cbn [r_step]. destruct v as [[cl cur]|]; [|exact Logic.I]. cbn [rfiles] in H.
    destruct (due crit off (rstart cur) (rbytes cur) t) eqn:D; cbn [rfiles].
    - apply chain_snoc; [exact H|]. intros _. exact D.
    - revert H. apply chain_last. intros z Hz. exact Hz. }
  destruct o; try exact H.
  - apply W.
  - exact (W b).
  - cbn [r_step]. destruct v as [[cl cur]|]; [|exact H]. cbn [rfiles] in *.
    apply chain_snoc; [exact H|]. intros Htr. discriminate Htr.
Qed.

Lemma r_run_chain crit off ops : forall v t,
  chain (was_due crit off) (rfiles v) -> chain (was_due crit off) (rfiles (r_run crit off v t ops)).
Proof.
  induction ops as [|o r IH]; intros v t H; [exact H|]. cbn [r_run]. apply IH. apply r_step_chain. exact H.
Qed.

(* -- a clock that does not go backwards: the files are started in order -- *)
Definition ticks_nonneg (ops : list op) : Prop :=
  Forall (fun o => match o with OTick dt => (0 <= dt)%Z | _ => True end) ops.
Definition start_le (f1 f2 : rfile) : Prop := (rstart f1 <= rstart f2)%Z.
Definition mono_inv (v : rview) (t : Z) : Prop :=
  chain start_le (rfiles v) /\ match v with Some (_, cur) => (rstart cur <= t)%Z | None => True end.

Lemma r_step_mono crit off v t o : mono_inv v t -> (t <= clock t o)%Z -> mono_inv (r_step crit off v t o) (clock t o).
Proof.
  intros [H1 H2] Hc.
  assert (W : forall b, mono_inv (r_step crit off v t (OWrite b)) t).
  { intros b. cbn [r_step]. destruct v as [[cl cur]|]; [|split; [exact Logic.I | cbn; lia]]. cbn [rfiles] in H1.
    destruct (due crit off (rstart cur) (rbytes cur) t); split; cbn [rfiles rstart]; try lia.
    - apply chain_snoc; [exact H1 | exact H2].
    - revert H1. apply chain_last. intros z Hz. exact Hz. }
  destruct o; cbn [clock] in *; try (split; [exact H1 | cbn [r_step]; destruct v as [[cl cur]|]; [lia | exact Logic.I]]).
  - apply W.
  - exact (W b).
  - cbn [r_step]. destruct v as [[cl cur]|]; [|split; [exact H1 | exact Logic.I]]. unfold mono_inv. cbn [rfiles rstart] in *.
    split; [|lia]. apply chain_snoc; [exact H1 | exact H2].
Qed.

Lemma r_run_mono crit off ops : forall v t, ticks_nonneg ops -> mono_inv v t ->
  chain start_le (rfiles (r_run crit off v t ops)).
Proof.
  induction ops as [|o r IH]; intros v t Ht H; [exact (proj1 H)|].
  inversion Ht as [|o' r' Ho Hr]; subst. cbn [r_run]. apply IH; [exact Hr|]. apply r_step_mono; [exact H|].
  destruct o; cbn [clock]; lia.
Qed.

Lemma period_of_mono a x y : (x <= y)%Z -> (period_of a x <= period_of a y)%Z.
Proof. intros H. destruct a; cbn [period_of]; try (apply Z.div_le_mono; lia). exact H. Qed.

(* the record-level specification of a history: which record goes into which file *)
Definition age_files (crit : criterion) (off t0 : Z) (ops : list op) : list rfile := rfiles (r_run crit off None t0 ops).

(* the record-level specification by itself: it does not depend on the naming *)
Lemma age_files_props crit a t0 off ops :
  age_of crit = Some a ->
  let fl := age_files crit off t0 ops in
    List.map rbytes fl = List.map snd (tpartition (age_of crit) (lim_of crit) off [] None (titems t0 ops))
    /\ concat (List.map rrecs fl) = trecs t0 ops
    /\ (forall f, In f fl -> one_period a off f /\ starts_with_record f)
    /\ trig_starts fl = trig_times false t0 ops
    /\ (forall i f1 f2, nth_error fl i = Some f1 -> nth_error fl (S i) = Some f2 -> was_due crit off f1 f2)
    /\ (ticks_nonneg ops -> forall i f1 f2, nth_error fl i = Some f1 -> nth_error fl (S i) = Some f2 -> start_le f1 f2).
Proof.
  intros Ha fl. unfold fl, age_files.
  split.
  { pose proof (t_run_partition crit off ops None t0) as E. cbn [tcl tcu] in E. rewrite <- E.
    change (@None (list tfile * tfile)) with (forget None). rewrite <- r_run_forget, tfiles_forget. reflexivity. }
  split. { rewrite r_run_recs. reflexivity. }
  split. { apply Forall_forall. apply (r_run_files_ok crit a off ops Ha). constructor. }
  split. { rewrite r_run_trigs. reflexivity. }
  split. { apply chain_nth. apply r_run_chain. exact Logic.I. }
  intros Ht. apply chain_nth. apply r_run_mono; [exact Ht|]. split; exact Logic.I.
Qed.

(* the same spelled out for the two criteria with an age; P is what the reader finds in the directory *)
Lemma age_periods_pure (P : list bytes -> Prop) a t0 off ops :
  P (List.map snd (tpartition (Some a) None off [] None (titems t0 ops))) ->
  exists fl : list rfile,
    P (List.map rbytes fl)
    /\ concat (List.map rrecs fl) = trecs t0 ops
    /\ (forall f t b, In f fl -> In (t, b) (rrecs f) -> period_of a (t + off) = period_of a (rstart f + off))
    /\ (forall f, In f fl -> rtrig f = false -> exists b rest, rrecs f = (rstart f, b) :: rest)
    /\ List.map rstart (filter rtrig fl) = trig_times false t0 ops
    /\ (forall i f1 f2, nth_error fl i = Some f1 -> nth_error fl (S i) = Some f2 -> rtrig f2 = false ->
          period_of a (rstart f1 + off) <> period_of a (rstart f2 + off))
    /\ (ticks_nonneg ops -> forall i f1 f2, nth_error fl i = Some f1 -> nth_error fl (S i) = Some f2 ->
          (period_of a (rstart f1 + off) <= period_of a (rstart f2 + off))%Z
          /\ (rtrig f2 = false -> (period_of a (rstart f1 + off) < period_of a (rstart f2 + off))%Z)).
Proof.
  intros H1. destruct (age_files_props (CAge a) a t0 off ops eq_refl) as [E [H2 [H3 [H4 [H5 H6]]]]].
  exists (age_files (CAge a) off t0 ops). split; [rewrite E; exact H1|]. split; [exact H2|].
  split. { intros f t b Hf. apply (proj1 (H3 f Hf)). }
  split. { intros f Hf. apply (proj2 (H3 f Hf)). }
  split; [exact H4|].
  assert (N : forall i f1 f2, nth_error (age_files (CAge a) off t0 ops) i = Some f1 ->
              nth_error (age_files (CAge a) off t0 ops) (S i) = Some f2 -> rtrig f2 = false ->
              period_of a (rstart f1 + off) <> period_of a (rstart f2 + off)).
  { intros i f1 f2 E1 E2 Htr. specialize (H5 i f1 f2 E1 E2 Htr).
    unfold due, rotate_due in H5. cbn [crit_parts fst snd] in H5. rewrite Bool.orb_false_r in H5.
    apply Bool.negb_true_iff, Z.eqb_neq in H5. exact H5. }
  split; [exact N|].
  intros Ht i f1 f2 E1 E2. pose proof (H6 Ht i f1 f2 E1 E2) as L. unfold start_le in L.
  assert (M : (period_of a (rstart f1 + off) <= period_of a (rstart f2 + off))%Z) by (apply period_of_mono; lia).
  split; [exact M|]. intros Htr. pose proof (N i f1 f2 E1 E2 Htr). lia.
Qed.

Lemma age_or_size_periods_pure (P : list bytes -> Prop) a m t0 off ops :
  P (List.map snd (tpartition (Some a) (Some m) off [] None (titems t0 ops))) ->
  exists fl : list rfile,
    P (List.map rbytes fl)
    /\ concat (List.map rrecs fl) = trecs t0 ops
    /\ (forall f t b, In f fl -> In (t, b) (rrecs f) -> period_of a (t + off) = period_of a (rstart f + off))
    /\ (forall f, In f fl -> rtrig f = false -> exists b rest, rrecs f = (rstart f, b) :: rest)
    /\ List.map rstart (filter rtrig fl) = trig_times false t0 ops
    /\ (forall i f1 f2, nth_error fl i = Some f1 -> nth_error fl (S i) = Some f2 -> rtrig f2 = false ->
          period_of a (rstart f1 + off) <> period_of a (rstart f2 + off) \/ (m < N.of_nat (length (rbytes f1)))%N)
    /\ (ticks_nonneg ops -> forall i f1 f2, nth_error fl i = Some f1 -> nth_error fl (S i) = Some f2 ->
          (period_of a (rstart f1 + off) <= period_of a (rstart f2 + off))%Z).
Proof.
  intros H1. destruct (age_files_props (CAgeOrSize a m) a t0 off ops eq_refl) as [E [H2 [H3 [H4 [H5 H6]]]]].
  exists (age_files (CAgeOrSize a m) off t0 ops). split; [rewrite E; exact H1|]. split; [exact H2|].
  split. { intros f t b Hf. apply (proj1 (H3 f Hf)). }
  split. { intros f Hf. apply (proj2 (H3 f Hf)). }
  split; [exact H4|].
  split.
  { intros i f1 f2 E1 E2 Htr. specialize (H5 i f1 f2 E1 E2 Htr).
    unfold due, rotate_due in H5. cbn [crit_parts fst snd] in H5.
    apply Bool.orb_true_iff in H5. destruct H5 as [H5|H5].
    - left. apply Bool.negb_true_iff, Z.eqb_neq in H5. exact H5.
    - right. apply N.ltb_lt. exact H5. }
  intros Ht i f1 f2 E1 E2. pose proof (H6 Ht i f1 f2 E1 E2) as L. unfold start_le in L. apply period_of_mono. lia.
Qed.

(* The general statement, for the record-level specification: the directory is a partition of the timed records, in
   order, into files such that
   - every record of a file lies in the period of the file's start,
   - a file not started by rotate() starts with, and at the instant of, its first record,
   - the files started by rotate() are exactly the triggers after the first write, with their instants,
   - a file not started by rotate() follows a file for which - at that instant - the rotation was due,
   - if the clock never goes backwards, the files are started in order. *)
Theorem numbers_age_records c crit a t0 off ops :
  numcfg c crit -> age_of crit = Some a -> Forall basic_op ops ->
  let fl := age_files crit off t0 ops in
    reads c (wfs (s_w (fst (run (sys0 t0 off) (OStart c :: ops ++ [OStop]))))) (List.map rbytes fl)
    /\ List.map rbytes fl = List.map snd (tpartition (age_of crit) (lim_of crit) off [] None (titems t0 ops))
    /\ concat (List.map rrecs fl) = trecs t0 ops
    /\ (forall f, In f fl -> one_period a off f /\ starts_with_record f)
    /\ trig_starts fl = trig_times false t0 ops
    /\ (forall i f1 f2, nth_error fl i = Some f1 -> nth_error fl (S i) = Some f2 -> was_due crit off f1 f2)
    /\ (ticks_nonneg ops -> forall i f1 f2, nth_error fl i = Some f1 -> nth_error fl (S i) = Some f2 -> start_le f1 f2).
Proof.
  intros Hcfg Ha Hb fl. destruct (age_files_props crit a t0 off ops Ha) as [E R].
  split; [|split; [exact E | exact R]]. unfold fl. rewrite E. exact (numbers_age_partition c crit t0 off ops Hcfg Hb).
Qed.

(* C09 for the pure age criterion, without reference to the oracle: the directory is an in-order partition of the
   records such that each file holds records of ONE period (that of its start), and no rotation happens inside a
   period - two consecutive files belong to different periods unless rotate() separated them; with a clock that
   does not go backwards, to a LATER period. *)
Theorem numbers_age_periods_pure c a t0 off ops :
  numcfg c (CAge a) -> Forall basic_op ops ->
  exists fl : list rfile,
    reads c (wfs (s_w (fst (run (sys0 t0 off) (OStart c :: ops ++ [OStop]))))) (List.map rbytes fl)
    /\ concat (List.map rrecs fl) = trecs t0 ops
    /\ (forall f t b, In f fl -> In (t, b) (rrecs f) -> period_of a (t + off) = period_of a (rstart f + off))
    /\ (forall f, In f fl -> rtrig f = false -> exists b rest, rrecs f = (rstart f, b) :: rest)
    /\ List.map rstart (filter rtrig fl) = trig_times false t0 ops
    /\ (forall i f1 f2, nth_error fl i = Some f1 -> nth_error fl (S i) = Some f2 -> rtrig f2 = false ->
          period_of a (rstart f1 + off) <> period_of a (rstart f2 + off))
    /\ (ticks_nonneg ops -> forall i f1 f2, nth_error fl i = Some f1 -> nth_error fl (S i) = Some f2 ->
          (period_of a (rstart f1 + off) <= period_of a (rstart f2 + off))%Z
          /\ (rtrig f2 = false -> (period_of a (rstart f1 + off) < period_of a (rstart f2 + off))%Z)).
Proof. intros Hcfg Hb. apply age_periods_pure. exact (numbers_age_partition c (CAge a) t0 off ops Hcfg Hb). Qed.

(* age-or-size: one period per file as well; a file not started by rotate() follows a file of another period or
   one that had exceeded the size limit *)
Theorem numbers_age_or_size_periods_pure c a m t0 off ops :
  numcfg c (CAgeOrSize a m) -> Forall basic_op ops ->
  exists fl : list rfile,
    reads c (wfs (s_w (fst (run (sys0 t0 off) (OStart c :: ops ++ [OStop]))))) (List.map rbytes fl)
    /\ concat (List.map rrecs fl) = trecs t0 ops
    /\ (forall f t b, In f fl -> In (t, b) (rrecs f) -> period_of a (t + off) = period_of a (rstart f + off))
    /\ (forall f, In f fl -> rtrig f = false -> exists b rest, rrecs f = (rstart f, b) :: rest)
    /\ List.map rstart (filter rtrig fl) = trig_times false t0 ops
    /\ (forall i f1 f2, nth_error fl i = Some f1 -> nth_error fl (S i) = Some f2 -> rtrig f2 = false ->
          period_of a (rstart f1 + off) <> period_of a (rstart f2 + off) \/ (m < N.of_nat (length (rbytes f1)))%N)
    /\ (ticks_nonneg ops -> forall i f1 f2, nth_error fl i = Some f1 -> nth_error fl (S i) = Some f2 ->
          (period_of a (rstart f1 + off) <= period_of a (rstart f2 + off))%Z).
Proof. intros Hcfg Hb. apply age_or_size_periods_pure. exact (numbers_age_partition c (CAgeOrSize a m) t0 off ops Hcfg Hb). Qed.

Print Assumptions numbers_age_flags.
Print Assumptions numbers_age_partition.
Print Assumptions numbers_age_oracle.
Print Assumptions numbers_age_records.
Print Assumptions numbers_age_periods_pure.
Print Assumptions numbers_age_or_size_periods_pure.

(* ------------------------------------------------------------------ examples *)
Import String.StringSyntax.
Open Scope string_scope.
Definition age_cfg (app : bool) (cap : option nat) (crit : criterion) : config :=
  {| c_spec := {| fbase := bs "app"; fdisc := None; fts := false; fsfx := Some (bs "log") |};
     c_append := app; c_cap := cap; c_rot := Some (crit, NNumbers, KNever); c_utc := false;
     c_symlink := false; c_bg := false; c_async := false; c_start := None |}.
Lemma age_numcfg app cap crit : numcfg (age_cfg app cap crit) crit.
Proof. repeat split. Qed.

Definition dir_of (x : sys) : list (bytes * N * bytes) :=
  match snapshot (s_w x) with ObsSnap l _ _ => l | _ => [] end.
Definition flags_of (obs : list obs) : list bool := List.map rot_of obs.

(* Age::Minute; the writer is started 59 s before the full minute, a record every 30 s: the first two records lie
   in minute 0, the next two in minute 1, the fifth in minute 2; then rotate() and one more record in minute 2 *)
Definition minute_ops : list op :=
  [OWrite (bs "a"); OTick 30; OWrite (bs "b"); OTick 30; OWrite (bs "c"); OTick 30; OPlain (bs "d"); OFlush; OTick 30;
   OWrite (bs "e"); OTrigger; OWrite (bs "f")].

Example minute_hyps : numcfg (age_cfg false (Some 8%nat) (CAge AMinute)) (CAge AMinute) /\ Forall basic_op minute_ops /\ ticks_nonneg minute_ops.
Proof. split; [apply age_numcfg|]. split; repeat constructor; cbn; lia. Qed.

Example minute_dir :
  dir_of (fst (run (sys0 1 0) (OStart (age_cfg false (Some 8%nat) (CAge AMinute)) :: minute_ops ++ [OStop])))
  = [ (bs "app_r00000.log", 0%N, bs "ab"); (bs "app_r00001.log", 0%N, bs "cd"); (bs "app_r00002.log", 0%N, bs "e");
      (bs "app_rCURRENT.log", 0%N, bs "f") ]
  /\ flags_of (snd (run (sys0 1 0) (OStart (age_cfg false (Some 8%nat) (CAge AMinute)) :: minute_ops)))
     = [false; false; false; false; false; true; false; false; false; false; true; false; false].
Proof. split; vm_compute; reflexivity. Qed.

(* the specification of that history: the timed items, the oracle's partition, the record-level files *)
Example minute_spec :
  titems 1 minute_ops = [TRec 1 (bs "a"); TRec 31 (bs "b"); TRec 61 (bs "c"); TRec 91 (bs "d"); TRec 121 (bs "e"); TTrig 121; TRec 121 (bs "f")]
  /\ tpartition (Some AMinute) None 0 [] None (titems 1 minute_ops)
     = [(1%Z, bs "ab"); (61%Z, bs "cd"); (121%Z, bs "e"); (121%Z, bs "f")]
  /\ age_files (CAge AMinute) 0 1 minute_ops
     = [ {| rstart := 1; rtrig := false; rrecs := [(1%Z, bs "a"); (31%Z, bs "b")] |};
         {| rstart := 61; rtrig := false; rrecs := [(61%Z, bs "c"); (91%Z, bs "d")] |};
         {| rstart := 121; rtrig := false; rrecs := [(121%Z, bs "e")] |};
         {| rstart := 121; rtrig := true; rrecs := [(121%Z, bs "f")] |} ].
Proof. repeat split; vm_compute; reflexivity. Qed.

(* the theorems, instantiated *)
Example minute_instance :
  reads (age_cfg false (Some 8%nat) (CAge AMinute))
        (wfs (s_w (fst (run (sys0 1 0) (OStart (age_cfg false (Some 8%nat) (CAge AMinute)) :: minute_ops ++ [OStop])))))
        [bs "ab"; bs "cd"; bs "e"; bs "f"].
Proof.
  destruct minute_hyps as [H1 [H2 _]].
  exact (numbers_age_partition (age_cfg false (Some 8%nat) (CAge AMinute)) (CAge AMinute) 1 0 minute_ops H1 H2).
Qed.

Example minute_flag_instance :
  nth_error (snd (run (sys0 1 0) (OStart (age_cfg false (Some 8%nat) (CAge AMinute)) :: minute_ops))) 5 = Some (ObsRes 0 true).
Proof.
  destruct minute_hyps as [H1 [H2 _]].
  rewrite (numbers_age_flags_age (age_cfg false (Some 8%nat) (CAge AMinute)) AMinute 1 0 minute_ops 4 (OWrite (bs "c")) (bs "c")
             H1 H2 eq_refl (or_introl eq_refl)).
  vm_compute. reflexivity.
Qed.

(* the zone offset decides: with an offset of 29 s the same instants fall into the minutes 0 1 1 2 2 *)
Example minute_offset_dir :
  dir_of (fst (run (sys0 1 29) (OStart (age_cfg true None (CAge AMinute)) :: minute_ops ++ [OStop])))
  = [ (bs "app_r00000.log", 0%N, bs "a"); (bs "app_r00001.log", 0%N, bs "bc"); (bs "app_r00002.log", 0%N, bs "de");
      (bs "app_rCURRENT.log", 0%N, bs "f") ].
Proof. vm_compute. reflexivity. Qed.

(* age-or-size, limit 1 byte: the size is checked before the write, so a file is closed by the first write that
   finds it larger than the limit ("ab" by "c"; "c" is not larger than 1, so "d" follows it) or in another period
   ("cd" by "e") *)
Example minute_or_size_dir :
  dir_of (fst (run (sys0 1 0) (OStart (age_cfg false (Some 8%nat) (CAgeOrSize AMinute 1)) ::
                               [OWrite (bs "ab"); OWrite (bs "c"); OWrite (bs "d"); OTick 60; OWrite (bs "e"); OStop])))
  = [ (bs "app_r00000.log", 0%N, bs "ab"); (bs "app_r00001.log", 0%N, bs "cd"); (bs "app_rCURRENT.log", 0%N, bs "e") ].
Proof. vm_compute. reflexivity. Qed.

(* observations about the start instant of a file *)
(* rotate() before the first write does nothing (no file is open: initialisation is lazy), and the first file is
   started at the first WRITE, not when the writer is built: built in minute 0, first record in minute 1, second in
   minute 1 - one file *)
Example trigger_before_first_write :
  dir_of (fst (run (sys0 1 0) (OStart (age_cfg false None (CAge AMinute)) ::
                               [OTrigger; OTick 60; OWrite (bs "a"); OTick 30; OWrite (bs "b"); OStop])))
  = [ (bs "app_rCURRENT.log", 0%N, bs "ab") ]
  /\ trig_times false 1 [OTrigger; OTick 60; OWrite (bs "a"); OTick 30; OWrite (bs "b")] = [].
Proof. split; vm_compute; reflexivity. Qed.

(* a file started by rotate() is started at the instant of rotate(): when the next record comes in another period,
   the file is closed empty *)
Example trigger_then_other_period :
  dir_of (fst (run (sys0 1 0) (OStart (age_cfg false None (CAge AMinute)) ::
                               [OWrite (bs "a"); OTrigger; OTick 60; OWrite (bs "b"); OStop])))
  = [ (bs "app_r00000.log", 0%N, bs "a"); (bs "app_r00001.log", 0%N, []); (bs "app_rCURRENT.log", 0%N, bs "b") ].
Proof. vm_compute. reflexivity. Qed.

(* the comparison is "another period", not "a later period": a clock that is set back one minute rotates as well
   (this is why the statements above need no assumption about the ticks) *)
Example clock_set_back :
  dir_of (fst (run (sys0 61 0) (OStart (age_cfg false None (CAge AMinute)) ::
                                [OWrite (bs "a"); OTick (-60); OWrite (bs "b"); OStop])))
  = [ (bs "app_r00000.log", 0%N, bs "a"); (bs "app_rCURRENT.log", 0%N, bs "b") ].
Proof. vm_compute. reflexivity. Qed.

(* outside the scope of the theorems (which start from the empty directory): a writer that is restarted with append
   continues rCURRENT, and the start instant of the continued file is the file's creation time, not the instant of
   the restart - written to in minute 0 by the first writer, it is closed by the first write of the second writer in
   minute 1.  One period per file holds here as well. *)
Example restart_append_birth_time :
  dir_of (fst (run (sys0 1 0) [OStart (age_cfg true None (CAge AMinute)); OWrite (bs "a"); OStop; OTick 60;
                               OStart (age_cfg true None (CAge AMinute)); OWrite (bs "b"); OTick 1; OWrite (bs "c"); OStop]))
  = [ (bs "app_r00000.log", 0%N, bs "a"); (bs "app_rCURRENT.log", 0%N, bs "bc") ].
Proof. vm_compute. reflexivity. Qed.
