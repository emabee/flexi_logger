(* Histories that also ask for the list of log files (OQuery, existing_log_files): under the invariants of the stream theorems
   a query returns normally and changes nothing - neither the writer's state nor the world.  Hence the queries can be erased
   from a history: the final state is the one of the history without them, and every observation is normal.  This extends
   "no operation panics" (NoPanic.v) and the stream theorems to histories of basic operations AND queries. *)
Require Import FL.Base.Bytes FL.Fs.Fs FL.Names.FileSpec FL.Flw.Model FL.Flw.ModelFacts FL.Flw.NumInv FL.Flw.Run
  FL.Flw.RunFacts FL.Flw.NumRun FL.Oracles.O_Flw FL.Flw.NumTheorems FL.Flw.NumListing FL.Flw.NumRestart
  FL.Flw.NumKillRestart FL.Flw.NumDInv FL.Flw.NumDRun FL.Flw.NumDTheorems FL.Flw.TsCal FL.Flw.TsTime FL.Flw.TsNames
  FL.Flw.TsInv FL.Flw.TsRun FL.Flw.TsTheorems FL.Flw.CleanupFacts FL.Flw.NumCleanupNames FL.Flw.NumCleanupStep
  FL.Flw.NumCleanupRun FL.Flw.NumCleanup FL.Flw.NoPanic.
Open Scope nat_scope.

(* ------------------------------------------------------------------ a query in a quiet world *)
Lemma existing_rot_some off sp fixed f flt sel : exists l, existing_rot off sp fixed f flt sel = Some l.
Proof.
  unfold existing_rot. destruct (sel_custom sel) as [x|]; rewrite ?filter_files_total;
    [destruct (sel_rcur sel && beq x cur_infix)|]; destruct (sel_plain sel), (sel_gz sel), (sel_rcur sel); cbn [app_opt]; eauto.
Qed.

Lemma query_quiet s w sel : quiet w -> exists l, query s w sel = (Ok l, w).
Proof.
  intros Q. unfold query.
  destruct (match f_inner s with
            | Initial => match c_rot (f_cfg s) with Some _ => true | None => false end
            | Active (Some _) _ _ => true
            | Active None _ _ => false end); [|eauto].
  unfold with_listing. rewrite (tick_quiet _ Q).
  match goal with |- context [existing_rot ?a ?b ?c ?d ?e ?g] => destruct (existing_rot_some a b c d e g) as [l ->] end. eauto.
Qed.

(* the query is a no-op with a normal result *)
Definition qfree (x : sys) : Prop := forall sel, exists l, step x (OQuery sel) = (x, ObsList 0%N l).

Lemma sync_query_noop x s sel : s_flw x = Some s -> f_poisoned s = false -> quiet (s_w x) ->
  exists l, sync_step x (OQuery sel) = (x, ObsList 0%N l).
Proof.
  intros Es Hp Q. cbn [sync_step]. rewrite Es, Hp. destruct (query_quiet s (s_w x) sel Q) as [l ->].
  rewrite (sys_eta x s Es). eauto.
Qed.

(* ------------------------------------------------------------------ erasing the queries *)
Definition opq (o : op) : Prop := basic_op o \/ exists sel, o = OQuery sel.
Definition is_query (o : op) : bool := match o with OQuery _ => true | _ => false end.
Definition noq (ops : list op) : list op := filter (fun o => negb (is_query o)) ops.

(* P holds in the state before each operation *)
Fixpoint before_each (P : sys -> Prop) (x : sys) (ops : list op) : Prop :=
  match ops with [] => True | o :: r => P x /\ before_each P (fst (step x o)) r end.

Lemma noq_basic ops : Forall opq ops -> Forall basic_op (noq ops).
Proof.
  induction 1 as [|o r [Ho|[sel ->]] _ IH]; cbn [noq filter is_query negb]; [constructor| |exact IH].
  destruct o; try contradiction; cbn [is_query negb]; constructor; (exact Ho || exact IH).
Qed.

Lemma noq_app a b : noq (a ++ b) = noq a ++ noq b.
Proof. apply filter_app. Qed.

Lemma noq_written ops : written (noq ops) = written ops.
Proof. induction ops as [|o r IH]; [reflexivity|]. unfold noq in *. destruct o; cbn [filter is_query negb written]; rewrite ?IH; reflexivity. Qed.

(* if the query is a no-op in every state that the history without queries passes through - and in the last one -,
   then the history with queries ends in the same state, and the observations of the two histories are normal together *)
Lemma erase_queries : forall ops x, Forall opq ops -> before_each qfree x (noq ops) -> qfree (fst (run x (noq ops))) ->
  fst (run x ops) = fst (run x (noq ops))
  /\ (Forall obs_ok (snd (run x (noq ops))) -> Forall obs_ok (snd (run x ops))).
Proof.
  induction ops as [|o r IH]; intros x Hq B L; [split; [reflexivity | auto]|].
  inversion Hq as [|o' r' Ho Hr]; subst. destruct Ho as [Ho|[sel ->]].
  - assert (E : noq (o :: r) = o :: noq r) by (destruct o; try contradiction; reflexivity).
    rewrite E in *. cbn [run before_each] in *. destruct B as [_ B]. destruct (step x o) as [x1 ob]. cbn [fst] in *.
    specialize (IH x1 Hr B). destruct (run x1 r) as [x2 obs]. destruct (run x1 (noq r)) as [x2' obs']. cbn [fst snd] in *.
    destruct (IH L) as [IH1 IH2]. split; [exact IH1|]. intros K. inversion K as [|? ? K1 K2]; subst. constructor; [exact K1 | exact (IH2 K2)].
  - change (noq (OQuery sel :: r)) with (noq r) in *. cbn [run].
    assert (Qx : qfree x).
    { destruct (noq r) as [|o' r'] eqn:En; [exact L | exact (proj1 B)]. }
    destruct (Qx sel) as [l ->]. specialize (IH x Hr B L). destruct (run x r) as [x2 obs]. cbn [fst snd] in *.
    destruct IH as [IH1 IH2]. split; [exact IH1|]. intros K. constructor; [reflexivity | exact (IH2 K)].
Qed.

(* the same for a whole session: start, the history, stop *)
Lemma erase_queries_session x o ops : Forall opq ops ->
  before_each qfree (fst (step x o)) (noq ops) -> qfree (fst (run (fst (step x o)) (noq ops))) ->
  fst (run x (o :: ops ++ [OStop])) = fst (run x (o :: noq ops ++ [OStop]))
  /\ (Forall obs_ok (snd (run x (o :: noq ops ++ [OStop]))) -> Forall obs_ok (snd (run x (o :: ops ++ [OStop])))).
Proof.
  intros Hq B Lq. cbn [run]. destruct (step x o) as [x0 ob0]. cbn [fst] in B, Lq.
  destruct (erase_queries ops x0 Hq B Lq) as [E1 E2]. rewrite !run_app.
  destruct (run x0 ops) as [x1 obs1]. destruct (run x0 (noq ops)) as [x1' obs1']. cbn [fst snd] in E1, E2. subst x1'.
  destruct (run x1 [OStop]) as [x2 obs2]. cbn [fst snd]. split; [reflexivity|].
  intros K. inversion K as [|? ? K0 K1]; subst. apply Forall_app in K1. destruct K1 as [K1 K2].
  constructor; [exact K0|]. apply Forall_app. split; [exact (E2 K1) | exact K2].
Qed.

(* ------------------------------------------------------------------ the numbered layouts *)
Section Layout.
Variables (cfgp : config -> criterion -> Prop) (ns : nat -> naming_state) (cur : config -> nat -> bytes)
          (Inv : config -> world -> writer -> list bytes -> Prop).
Hypothesis L : layout cfgp ns cur Inv.

Lemma lrel_qfree c crit x a : cfgp c crit -> LRel ns cur Inv c crit x a -> qfree x.
Proof.
  intros Hcfg R sel. rewrite (lrel_sync _ _ _ _ L c crit x a (OQuery sel) Hcfg R). destruct R as [_ [_ R]]. destruct a as [[cl cu]|].
  - destruct R as [wr [roll [Es [I _]]]]. exact (sync_query_noop x _ sel Es eq_refl (lo_quiet _ _ _ _ L _ _ _ _ I)).
  - destruct R as [Es [Q _]]. exact (sync_query_noop x _ sel Es eq_refl Q).
Qed.

Lemma lrel_before_each c crit : cfgp c crit -> forall ops x a, LRel ns cur Inv c crit x a -> Forall basic_op ops ->
  before_each qfree x ops.
Proof.
  intros Hcfg. induction ops as [|o r IH]; intros x a R Hb; [exact I|]. inversion Hb as [|o' r' Ho Hr]; subst.
  cbn [before_each]. split; [exact (lrel_qfree c crit x a Hcfg R)|].
  pose proof (lstep_rel _ _ _ _ L c crit x a o Hcfg R Ho) as S. destruct (step x o) as [x1 ob]. destruct S as [R1 _]. exact (IH x1 _ R1 Hr).
Qed.
End Layout.

(* the final directory is the one of the history without the queries: numbers_stream for histories with queries *)
Theorem numbers_stream_q c crit t0 off ops :
  numcfg c crit -> Forall opq ops ->
  exists files, reads c (wfs (s_w (fst (run (sys0 t0 off) (OStart c :: ops ++ [OStop]))))) files
    /\ concat files = written ops
  /\ Forall obs_ok (snd (run (sys0 t0 off) (OStart c :: ops ++ [OStop]))).
Proof.
  intros Hcfg Hq. pose proof (noq_basic ops Hq) as Hb.
  destruct (numbers_stream c crit t0 off (noq ops) Hcfg Hb) as [files [Rd Fl]].
  pose proof (numbers_no_panic c crit t0 off (noq ops) Hcfg Hb) as K.
  pose proof (start_rel c crit t0 off) as R0.
  pose proof (run_rel c crit Hcfg (noq ops) _ None R0 Hb) as R1.
  destruct (erase_queries_session (sys0 t0 off) (OStart c) ops Hq
              (lrel_before_each _ _ _ _ num_layout c crit Hcfg _ _ None R0 Hb) (lrel_qfree _ _ _ _ num_layout c crit _ _ Hcfg R1)) as [E1 E2].
  exists files. rewrite E1, <- (noq_written ops). split; [exact Rd|]. split; [exact Fl | exact (E2 K)].
Qed.
Print Assumptions numbers_stream_q.

Theorem numbersdirect_stream_q c crit t0 off ops :
  numdcfg c crit -> Forall opq ops ->
  exists files, direct_view c (wfs (s_w (fst (run (sys0 t0 off) (OStart c :: ops ++ [OStop]))))) files
    /\ concat files = written ops
  /\ Forall obs_ok (snd (run (sys0 t0 off) (OStart c :: ops ++ [OStop]))).
Proof.
  intros Hcfg Hq. pose proof (noq_basic ops Hq) as Hb.
  destruct (numbersdirect_stream c crit t0 off (noq ops) Hcfg Hb) as [files [Rd Fl]].
  pose proof (numbersdirect_no_panic c crit t0 off (noq ops) Hcfg Hb) as K.
  pose proof (start_rel_d c crit t0 off) as R0.
  pose proof (run_rel_d c crit Hcfg (noq ops) _ None R0 Hb) as R1.
  destruct (erase_queries_session (sys0 t0 off) (OStart c) ops Hq
              (lrel_before_each _ _ _ _ numd_layout c crit Hcfg _ _ None R0 Hb) (lrel_qfree _ _ _ _ numd_layout c crit _ _ Hcfg R1)) as [E1 E2].
  exists files. rewrite E1, <- (noq_written ops). split; [exact Rd|]. split; [exact Fl | exact (E2 K)].
Qed.
Print Assumptions numbersdirect_stream_q.

(* ------------------------------------------------------------------ Timestamps *)
Lemma relt_qfree c crit e lo n x a : tscfg c crit -> RelT c e lo n x a -> qfree x.
Proof.
  intros Hcfg R sel. rewrite (step_sync_rel_ts c crit e lo n x a (OQuery sel) Hcfg R). destruct R as [_ [_ R]]. destruct a as [[cl cu]|].
  - destruct R as [keys [wr [roll [ts [Es [I _]]]]]]. exact (sync_query_noop x _ sel Es eq_refl (ti_quiet _ _ _ _ _ _ _ _ I)).
  - destruct R as [Es [Q _]]. exact (sync_query_noop x _ sel Es eq_refl Q).
Qed.

Lemma relt_before_each c crit e lo hi : tscfg c crit -> tag_ok c -> years_ok e lo hi ->
  forall ops x a n, RelT c e lo n x a -> Forall basic_op ops -> Forall tick_ok ops ->
  (wnow (s_w x) + elapsed ops <= hi)%Z -> (N.of_nat (n + length ops) <= usize_max)%N -> before_each qfree x ops.
Proof.
  intros Hcfg T Y. induction ops as [|o r IH]; intros x a n R Hb Htk Hhi Hmax; [exact I|].
  inversion Hb as [|o' r' Ho Hr]; subst. inversion Htk as [|o' r' Hto Htr]; subst.
  cbn [elapsed length before_each] in *. pose proof (elapsed_nonneg r Htr) as Er.
  assert (Hdt : (0 <= dt_of o)%Z) by (destruct o; cbn [dt_of tick_ok] in *; lia).
  split; [exact (relt_qfree c crit e lo n x a Hcfg R)|].
  pose proof (step_rel_ts c crit e lo hi n x a o Hcfg T Y R Ho Hto ltac:(lia) ltac:(lia)) as S. destruct (step x o) as [x1 ob].
  destruct S as [R1 W1]. exact (IH x1 _ (S n) R1 Hr Htr ltac:(cbn [fst]; lia) ltac:(lia)).
Qed.

Lemma noq_tick_ok ops : Forall opq ops -> Forall tick_ok ops -> Forall tick_ok (noq ops).
Proof. intros _ H. unfold noq. rewrite Forall_forall in *. intros o Ho. apply filter_In in Ho. apply H, Ho. Qed.
Lemma noq_elapsed ops : elapsed (noq ops) = elapsed ops.
Proof. induction ops as [|o r IH]; [reflexivity|]. unfold noq in *. destruct o; cbn [filter is_query negb elapsed dt_of]; rewrite ?IH; reflexivity. Qed.
Lemma noq_length ops : length (noq ops) <= length ops.
Proof. unfold noq. induction ops as [|o r IH]; cbn [filter length]; [lia|]. destruct (negb (is_query o)); cbn [length]; lia. Qed.

Theorem timestamps_stream_q c crit t0 off ops :
  tscfg c crit -> tag_ok c -> Forall opq ops -> Forall tick_ok ops ->
  (0 <= t0 + ts_e c off)%Z -> (t0 + elapsed ops + ts_e c off < sec_max)%Z -> (N.of_nat (length ops) <= usize_max)%N ->
  let f := wfs (s_w (fst (run (sys0 t0 off) (OStart c :: ops ++ [OStop])))) in
  ((names f = [] /\ written ops = [])
   \/ exists keys closed cur,
        ts_view c (ts_e c off) f keys closed cur /\ concat closed ++ cur = written ops /\ keys_ok keys
        /\ (forall k, In k keys -> (t0 <= fst k <= t0 + elapsed ops)%Z))
  /\ Forall obs_ok (snd (run (sys0 t0 off) (OStart c :: ops ++ [OStop]))).
Proof.
  intros Hcfg T Hq Htk Hlo Hhi Hmax. pose proof (noq_basic ops Hq) as Hb. pose proof (noq_tick_ok ops Hq Htk) as Htk'.
  pose proof (noq_length ops) as Len.
  assert (Hhi' : (t0 + elapsed (noq ops) + ts_e c off < sec_max)%Z) by (rewrite noq_elapsed; exact Hhi).
  assert (Hmax' : (N.of_nat (length (noq ops)) <= usize_max)%N) by lia.
  pose proof (timestamps_stream c crit t0 off (noq ops) Hcfg T Hb Htk' Hlo Hhi' Hmax') as TS.
  pose proof (timestamps_no_panic c crit t0 off (noq ops) Hcfg T Hb Htk' Hlo Hhi' Hmax') as K.
  cbv zeta in TS |- *. rewrite noq_written, noq_elapsed in TS.
  pose proof (start_rel_ts c t0 off) as R0.
  assert (Y : years_ok (ts_e c off) t0 (t0 + elapsed ops)) by (split; assumption).
  pose proof (run_rel_ts c crit _ _ _ Hcfg T Y (noq ops) _ None 0 R0 Hb Htk' ltac:(rewrite noq_elapsed; cbn; lia) ltac:(cbn [Nat.add]; exact Hmax')) as [R1 _].
  pose proof (relt_before_each c crit _ _ _ Hcfg T Y (noq ops) _ None 0 R0 Hb Htk' ltac:(rewrite noq_elapsed; cbn; lia) ltac:(cbn [Nat.add]; exact Hmax')) as B.
  destruct (erase_queries_session (sys0 t0 off) (OStart c) ops Hq B (relt_qfree c crit _ _ _ _ _ Hcfg R1)) as [E1 E2].
  rewrite E1. split; [exact TS | exact (E2 K)].
Qed.
Print Assumptions timestamps_stream_q.

(* ------------------------------------------------------------------ an instance: queries between the operations *)
Definition qsel : selector := {| sel_plain := true; sel_gz := true; sel_rcur := true; sel_custom := None |}.
Example numbers_q_instance :
  Forall obs_ok (snd (run (sys0 0 0) (OStart (NumCleanup.ex_cfg KNever log_sfx) :: (OQuery qsel :: ex_ops ++ [OQuery qsel; OSnap]) ++ [OStop]))).
Proof.
  destruct (numbers_stream_q (NumCleanup.ex_cfg KNever log_sfx) (CSize 3) 0 0 (OQuery qsel :: ex_ops ++ [OQuery qsel; OSnap])) as [files [_ [_ K]]].
  - destruct (ex_numkcfg KNever log_sfx) as (A & B & C & D & _). repeat split; assumption.
  - constructor; [right; eauto|]. apply Forall_app. split.
    + eapply Forall_impl; [|exact ex_ops_basic]. intros o Ho. left. exact Ho.
    + constructor; [right; eauto|]. constructor; [left; exact I | constructor].
  - exact K.
Qed.
