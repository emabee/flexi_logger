(* Numbers naming (rCURRENT + r00000, r00001, ...): the invariant that ties the concrete state to the
   abstract reader's view  (closed files in order, current content ++ pending bytes), and what the run lemmas need of
   a numbered naming (Section Layout), with Numbers naming as its instance. *)
Require Import FL.Base.Bytes FL.Base.BytesFacts FL.Fs.Fs FL.Names.FileSpec FL.Names.NamesFacts FL.Flw.Model
  FL.Flw.ModelFacts FL.Flw.NumFs.
Open Scope nat_scope.

(* the configurations covered: Numbers naming, no cleanup, no start-time part, no symlink *)
Definition numcfg (c : config) (crit : criterion) : Prop :=
  c_rot c = Some (crit, NNumbers, KNever) /\ fts (c_spec c) = false /\ c_symlink c = false /\ c_async c = false.

(* the part of it that a write, a rotation and the first open of the file read; the write mode is not in it *)
Definition numrot (c : config) (crit : criterion) : Prop :=
  c_rot c = Some (crit, NNumbers, KNever) /\ fts (c_spec c) = false /\ c_symlink c = false.

Lemma numcfg_rot c crit : numcfg c crit -> numrot c crit.
Proof. intros [Hrot [Hts [Hlink _]]]. split; [exact Hrot|]. split; assumption. Qed.

Definition fixed0 (c : config) : bytes := fixed_name_part (c_spec c) [].
Definition nm (c : config) (infix : bytes) : bytes := as_name (c_spec c) (fixed0 c) (Some infix).
Definition rname (c : config) (i : nat) : bytes := nm c (number_infix (N.of_nat i)).
Definition cname (c : config) : bytes := nm c cur_infix.

Lemma name_of_fixed c w o : fts (c_spec c) = false -> name_of c w o = as_name (c_spec c) (fixed0 c) o.
Proof. intros H. unfold name_of, fixed_of, fixed0, fixed_name_part. rewrite H. reflexivity. Qed.
Lemma fixed_of_fixed0 c w : fts (c_spec c) = false -> fixed_of c w = fixed0 c.
Proof. intros H. unfold fixed_of, fixed0, fixed_name_part. rewrite H. reflexivity. Qed.

Lemma rname_inj c i j : rname c i = rname c j -> i = j.
Proof. unfold rname, nm. intros H. apply as_name_inj in H; try apply number_infix_nonempty.
  apply number_infix_inj in H. lia. Qed.
Lemma rname_not_cname c i : rname c i <> cname c.
Proof. unfold rname, cname, nm. intros H. apply as_name_inj in H; [|apply number_infix_nonempty | apply cur_infix_nonempty].
  exact (number_infix_not_cur _ H). Qed.

Definition plain (fl : file) : Prop := fgz fl = 0%N /\ fdir fl = false.

Record NumInv (c : config) (w : world) (wr : writer) (closed : list bytes) : Prop := {
  ni_quiet : quiet w;
  ni_wf : fs_wf (wfs w);
  ni_cur : lookup (wfs w) (cname c) = Some (wino wr);
  ni_curplain : plain (inode (wfs w) (wino wr));
  ni_closed : forall i, i < length closed ->
      exists j, lookup (wfs w) (rname c i) = Some j /\ plain (inode (wfs w) j) /\ content (wfs w) j = nth i closed [];
  ni_only : forall n j, lookup (wfs w) n = Some j -> n = cname c \/ exists i, i < length closed /\ n = rname c i;
  ni_wr : wr_ok wr;
  ni_cap : wcap wr = c_cap c }.

(* the same in a directory that also holds the files `extra` (name, content), none of them named like a member of the
   family; the writer may have another buffer capacity than the configuration says *)
Record NumInvX (c : config) (w : world) (wr : writer) (closed : list bytes) (extra : list (bytes * bytes)) : Prop := {
  nx_quiet : quiet w;
  nx_wf : fs_wf (wfs w);
  nx_cur : lookup (wfs w) (cname c) = Some (wino wr);
  nx_curplain : plain (inode (wfs w) (wino wr));
  nx_closed : forall i, i < length closed ->
      exists j, lookup (wfs w) (rname c i) = Some j /\ plain (inode (wfs w) j) /\ content (wfs w) j = nth i closed [];
  nx_extra : forall n d, In (n, d) extra ->
      exists j, lookup (wfs w) n = Some j /\ plain (inode (wfs w) j) /\ content (wfs w) j = d;
  nx_only : forall n j, lookup (wfs w) n = Some j ->
      n = cname c \/ (exists i, i < length closed /\ n = rname c i) \/ In n (List.map fst extra);
  nx_fresh : forall n, In n (List.map fst extra) -> n <> cname c /\ forall i, n <> rname c i;
  nx_wr : wr_ok wr }.

Lemma numinv_x c w wr closed : NumInv c w wr closed -> NumInvX c w wr closed [].
Proof.
  intros [Q W Hc Hcp Hcl Hon Hwr Hcap]. constructor; try assumption.
  - intros n d [].
  - intros n j H. destruct (Hon n j H) as [E|E]; [left; exact E | right; left; exact E].
  - intros n [].
Qed.

Lemma numinvx_base c w wr closed : NumInvX c w wr closed [] -> wcap wr = c_cap c -> NumInv c w wr closed.
Proof.
  intros [Q W Hc Hcp Hcl Hex Hon Hfr Hwr] Hcap. constructor; try assumption.
  intros n j H. destruct (Hon n j H) as [E|[E|[]]]; [left; exact E | right; exact E].
Qed.

(* what the reader will find in the current file once the writer has flushed *)
Definition cur_view (w : world) (wr : writer) : bytes := content (wfs w) (wino wr) ++ wpend wr.

Definition roll_size_ok (r : roll_state) (n : nat) : Prop :=
  match r with RSize _ cur => cur = N.of_nat n | RAgeSize _ _ _ cur => cur = N.of_nat n | RAge _ _ => True end.

Definition mk_rs (ns : naming_state) (r : roll_state) : rot_state :=
  {| rs_naming := ns; rs_roll := r; rs_cleanup := KNever; rs_bg := false |}.

Definition roll_ok (crit : criterion) (st : Z) (roll : roll_state) : Prop :=
  match crit, roll with
  | CSize m, RSize m' _ => m' = m
  | CAge a, RAge a' cr => a' = a /\ cr = st
  | CAgeOrSize a m, RAgeSize a' cr m' _ => a' = a /\ cr = st /\ m' = m
  | _, _ => False
  end.

Lemma roll_ok_increase crit st roll n : roll_ok crit st roll -> roll_ok crit st (increase_size roll n).
Proof. destruct crit, roll; cbn; auto. Qed.

Lemma roll_ok_size crit st roll m : roll_ok crit st roll -> crit = CSize m -> exists k, roll = RSize m k.
Proof. intros H ->. destruct roll; cbn in H; try contradiction. subst. eauto. Qed.

Lemma roll_of_ok crit k t : roll_ok crit t (roll_of crit k t).
Proof. destruct crit; cbn; auto. Qed.

Lemma roll_of_size crit n t : roll_size_ok (roll_of crit (N.of_nat n) t) n.
Proof. destruct crit; reflexivity. Qed.

Definition roll_kept (crit : criterion) (rot : bool) (t : Z) (roll roll' : roll_state) : Prop :=
  (forall m k, roll = RSize m k -> exists k', roll' = RSize m k')
  /\ (forall st, roll_ok crit st roll -> roll_ok crit (if rot then t else st) roll').

Lemma roll_kept_refl crit t roll : roll_kept crit false t roll roll.
Proof. split; eauto. Qed.

Lemma roll_kept_reset crit w roll path : roll_kept crit true (birth_or_now w path) roll (reset_size_and_date w roll path).
Proof.
  split.
  - intros m k ->. cbn. eauto.
  - intros st. destruct crit, roll; cbn [roll_ok reset_size_and_date]; tauto.
Qed.

Lemma roll_kept_increase crit rot t roll roll' n :
  roll_kept crit rot t roll roll' -> roll_kept crit rot t roll (increase_size roll' n).
Proof.
  intros [S K]. split.
  - intros m k E. destruct (S m k E) as [k' ->]. cbn. eauto.
  - intros st H. apply roll_ok_increase. exact (K st H).
Qed.

Lemma roll_kept_size crit rot t roll roll' :
  roll_kept crit rot t roll roll' ->
  (forall m, crit = CSize m -> exists k, roll = RSize m k) -> forall m, crit = CSize m -> exists k, roll' = RSize m k.
Proof. intros [S _] H m Hm. destruct (H m Hm) as [k E]. exact (S m k E). Qed.

Lemma reset_size_zero w roll path : roll_size_ok (reset_size_and_date w roll path) 0.
Proof. destruct roll; reflexivity. Qed.

Lemma roll_size_increase roll n k : roll_size_ok roll n -> roll_size_ok (increase_size roll (N.of_nat k)) (n + k).
Proof. destruct roll; cbn; intros; subst; lia. Qed.

Lemma ghost_none (rot : bool) : (if rot then 0 else 0) = 0.
Proof. destruct rot; reflexivity. Qed.

Lemma same_env_acts w w' : same_env w w' -> wacts w = 0 -> wacts w' = 0.
Proof. intros [_ [_ [_ [_ [_ H]]]]] E. congruence. Qed.

(* Numbers and NumbersDirect keep the closed files under r00000, r00001, ... and differ in the configurations they
   cover, in the naming state `ns n` after n closed files, in the name `cur c n` of the file being written, and in
   what a rotation does to the directory.  A write, a flush and a rotation need of the configurations and of the
   invariant `Inv` only what `write_layout` lists: the write mode is not in it, the writer thread of the asynchronous
   mode calls the same write_buffer / flush_state / shutdown_state.  `active_layout` adds what makes Run.step the
   synchronous step; `layout` adds the start in an empty directory, which an invariant that speaks of other files
   cannot offer. *)
Section Layout.
Variables (cfgp : config -> criterion -> Prop) (ns : nat -> naming_state) (cur : config -> nat -> bytes)
          (Inv : config -> world -> writer -> list bytes -> Prop).

Definition lay_st (c : config) (n : nat) (roll : roll_state) (wr : writer) : flw :=
  {| f_cfg := c; f_inner := Active (Some (mk_rs (ns n) roll)) wr (cur c n); f_poisoned := false |}.

Record write_layout : Prop := {
  lo_quiet : forall c w wr cl, Inv c w wr cl -> quiet w;
  lo_wr : forall c w wr cl, Inv c w wr cl -> wr_ok wr;
  lo_env : forall c w w' wr cl, Inv c w wr cl -> wfs w' = wfs w -> quiet w' -> Inv c w' wr cl;
  lo_append : forall c w w' wr wr' cl x,
      Inv c w wr cl -> wfs w' = append_ino (wfs w) (wino wr) x -> same_env w w' ->
      wino wr' = wino wr -> wcap wr' = wcap wr -> wr_ok wr' ->
      Inv c w' wr' cl /\ content (wfs w') (wino wr') = content (wfs w) (wino wr) ++ x;
  lo_rotate : forall c crit w wr cl roll force,
      cfgp c crit -> Inv c w wr cl -> force || rotation_necessary w roll = true ->
      exists w' wr' roll',
        mount_next c w (Active (Some (mk_rs (ns (length cl)) roll)) wr (cur c (length cl))) force
        = (Ok tt, w', Active (Some (mk_rs (ns (length (cl ++ [cur_view w wr]))) roll')) wr' (cur c (length (cl ++ [cur_view w wr]))))
        /\ Inv c w' wr' (cl ++ [cur_view w wr])
        /\ cur_view w' wr' = [] /\ roll_size_ok roll' 0 /\ same_env w w'
        /\ roll_kept crit true (wnow w) roll roll' }.

Definition empty_start : Prop :=
  forall c crit w,
    cfgp c crit -> quiet w -> names (wfs w) = [] -> inodes (wfs w) = [] ->
    exists w' wr,
      initialize c w = (Ok (Active (Some (mk_rs (ns 0) (roll_of crit 0 (wnow w)))) wr (cur c 0)), w')
      /\ Inv c w' wr [] /\ cur_view w' wr = [] /\ same_env w w'.

Record active_layout : Prop := {
  lo_write :> write_layout;
  lo_sync : forall c crit, cfgp c crit -> fts (c_spec c) = false /\ c_async c = false }.

Record layout : Prop := {
  lo_active :> active_layout;
  lo_init : empty_start }.

Hypothesis L : write_layout.

(* g: the part of the size count that is not in the current file (bytes of a file that was moved away under the
   writer) *)
Lemma active_write c crit w wr cl roll g b :
  cfgp c crit -> Inv c w wr cl -> roll_size_ok roll (g + length (cur_view w wr)) ->
  let rot := rotation_necessary w roll in
  exists w' wr' roll' cl',
    write_buffer (lay_st c (length cl) roll wr) w b = (Ok tt, w', lay_st c (length cl') roll' wr', rot)
    /\ Inv c w' wr' cl' /\ roll_size_ok roll' ((if rot then 0 else g) + length (cur_view w' wr')) /\ same_env w w'
    /\ (cl', cur_view w' wr') = (if rot then (cl ++ [cur_view w wr], b) else (cl, cur_view w wr ++ b))
    /\ roll_kept crit rot (wnow w) roll roll'.
Proof.
  intros Hcfg I Hsz rot.
  unfold write_buffer, lay_st. cbn [f_cfg f_inner f_poisoned mk_rs rs_roll]. fold rot.
  assert (M : exists w1 wr1 roll1 cl1,
            mount_next c w (Active (Some (mk_rs (ns (length cl)) roll)) wr (cur c (length cl))) false
            = (Ok tt, w1, Active (Some (mk_rs (ns (length cl1)) roll1)) wr1 (cur c (length cl1)))
            /\ Inv c w1 wr1 cl1 /\ roll_size_ok roll1 ((if rot then 0 else g) + length (cur_view w1 wr1)) /\ same_env w w1
            /\ (cl1, cur_view w1 wr1) = (if rot then (cl ++ [cur_view w wr], []) else (cl, cur_view w wr))
            /\ roll_kept crit rot (wnow w) roll roll1).
  { destruct rot eqn:Er.
    - destruct (lo_rotate L c crit w wr cl roll false Hcfg I) as [w1 [wr1 [roll1 [E [I1 [V1 [Z1 [S1 R1]]]]]]]]; [exact Er|].
      exists w1, wr1, roll1, (cl ++ [cur_view w wr]). rewrite V1.
      split; [exact E|]. split; [exact I1|]. split; [exact Z1|]. split; [exact S1|]. split; [reflexivity | exact R1].
    - exists w, wr, roll, cl. split.
      + unfold mount_next. cbn [mk_rs rs_roll orb]. unfold rot in Er. rewrite Er. reflexivity.
      + split; [exact I|]. split; [exact Hsz|]. split; [apply same_env_refl; exact (lo_quiet L _ _ _ _ I)|].
        split; [reflexivity | apply roll_kept_refl]. }
  destruct M as [w1 [wr1 [roll1 [cl1 [E [I1 [Z1 [S1 [V1 R1]]]]]]]]].
  rewrite E.
  destruct (w_write_quiet w1 wr1 b (lo_quiet L _ _ _ _ I1) (lo_wr L _ _ _ _ I1)) as [w2 [wr2 [fl [Ew [S2 [F2 [Ei [Ec [Ep Hok]]]]]]]]].
  rewrite Ew.
  destruct (lo_append L c w1 w2 wr1 wr2 cl1 fl I1 F2 S2 Ei Ec Hok) as [I2 C2].
  exists w2, wr2, (increase_size roll1 (N.of_nat (length b))), cl1.
  assert (V2 : cur_view w2 wr2 = cur_view w1 wr1 ++ b).
  { unfold cur_view. rewrite C2, <- !app_assoc, Ep. reflexivity. }
  split; [reflexivity|]. split; [exact I2|].
  split. { rewrite V2, app_length, Nat.add_assoc. apply roll_size_increase. exact Z1. }
  split; [eapply same_env_trans; eassumption|].
  split. { rewrite V2. destruct rot; injection V1 as -> ->; reflexivity. }
  apply roll_kept_increase. exact R1.
Qed.

Lemma active_flushed c w w1 wr cl :
  Inv c w wr cl -> wfs w1 = append_ino (wfs w) (wino wr) (wpend wr) -> same_env w w1 ->
  Inv c w1 {| wino := wino wr; wpend := []; wcap := wcap wr |} cl
  /\ cur_view w1 {| wino := wino wr; wpend := []; wcap := wcap wr |} = cur_view w wr.
Proof.
  intros I F S.
  destruct (lo_append L c w w1 wr {| wino := wino wr; wpend := []; wcap := wcap wr |} cl (wpend wr) I F S eq_refl eq_refl
              (wr_ok_nil _ _)) as [I1 C1].
  split; [exact I1|]. unfold cur_view. rewrite C1. cbn [wpend]. rewrite app_nil_r. reflexivity.
Qed.

Lemma active_flush c w wr cl roll :
  Inv c w wr cl ->
  exists w' wr', flush_state (lay_st c (length cl) roll wr) w = (true, w', lay_st c (length cl) roll wr')
    /\ Inv c w' wr' cl /\ cur_view w' wr' = cur_view w wr /\ wpend wr' = [] /\ same_env w w'.
Proof.
  intros I. unfold flush_state, lay_st. cbn [f_inner].
  destruct (w_flush_quiet w wr (lo_quiet L _ _ _ _ I)) as [w1 [E [F S]]]. rewrite E.
  destruct (active_flushed c w w1 wr cl I F S) as [I1 V1].
  eexists w1, _. split; [reflexivity|]. split; [exact I1|]. split; [exact V1|]. split; [reflexivity | exact S].
Qed.

Lemma active_shutdown c w wr cl roll : Inv c w wr cl -> wacts w = 0 ->
  exists w' wr', shutdown_state (lay_st c (length cl) roll wr) w = (w', lay_st c (length cl) roll wr')
    /\ Inv c w' wr' cl /\ cur_view w' wr' = cur_view w wr /\ wpend wr' = [] /\ wacts w' = 0.
Proof.
  intros I Ha. unfold shutdown_state, lay_st, drain_acts. cbn [f_inner f_cfg mk_rs rs_cleanup rs_naming].
  destruct (w_flush_quiet w wr (lo_quiet L _ _ _ _ I)) as [w1 [E [F S]]]. rewrite E.
  destruct (active_flushed c w w1 wr cl I F S) as [I1 V1].
  eexists w1, _. split; [reflexivity|]. split; [exact I1|]. split; [exact V1|]. split; [reflexivity | exact (same_env_acts _ _ S Ha)].
Qed.

Lemma active_drop c w wr cl roll : Inv c w wr cl -> wacts w = 0 ->
  exists wr', Inv c (drop_state (lay_st c (length cl) roll wr) w) wr' cl
    /\ cur_view (drop_state (lay_st c (length cl) roll wr) w) wr' = cur_view w wr /\ wpend wr' = []
    /\ wacts (drop_state (lay_st c (length cl) roll wr) w) = 0.
Proof.
  intros I Ha. unfold drop_state.
  destruct (active_shutdown c w wr cl roll I Ha) as [w1 [wr1 [E1 [I1 [V1 [P1 A1]]]]]]. rewrite E1.
  destruct (active_shutdown c w1 wr1 cl roll I1 A1) as [w2 [wr2 [E2 [I2 [V2 [P2 A2]]]]]]. rewrite E2.
  cbn [lay_st f_inner]. unfold w_drop.
  destruct (w_flush_quiet w2 wr2 (lo_quiet L _ _ _ _ I2)) as [w3 [E3 [F3 S3]]]. rewrite E3. cbn [fst snd].
  rewrite P2, append_ino_nil_id in F3.
  exists wr2. split; [exact (lo_env L c w2 w3 wr2 cl I2 F3 (proj1 S3))|].
  split; [unfold cur_view in *; rewrite F3; congruence|]. split; [exact P2 | exact (same_env_acts _ _ S3 A2)].
Qed.
End Layout.

(* rCURRENT is renamed to the next number, a new rCURRENT is created, and what the old writer still held goes into
   the renamed file *)
Lemma rotate_numinvx c w wr cl extra now : NumInvX c w wr cl extra ->
  exists f1, rename (wfs w) (cname c) (rname c (length cl)) = Some f1 /\ lookup f1 (cname c) = None /\
    forall w3, quiet w3 -> wfs w3 = append_ino (fst (create_file f1 (cname c) 0%N now)) (wino wr) (wpend wr) ->
      NumInvX c w3 {| wino := snd (create_file f1 (cname c) 0%N now); wpend := []; wcap := c_cap c |} (cl ++ [cur_view w wr]) extra
      /\ cur_view w3 {| wino := snd (create_file f1 (cname c) 0%N now); wpend := []; wcap := c_cap c |} = []
      /\ file_of (wfs w3) (cname c) = Some (fresh_file now).
Proof.
  intros I. pose proof I as [Q W Hc Hcp Hcl Hex Hon Hfr Hwr].
  (* the target name is free *)
  assert (Ht : lookup (wfs w) (rname c (length cl)) = None).
  { destruct (lookup (wfs w) (rname c (length cl))) as [j|] eqn:E; [|reflexivity].
    destruct (Hon _ _ E) as [E1|[[i [Hi E1]]|E1]].
    - exfalso; exact (rname_not_cname _ _ E1).
    - apply rname_inj in E1. lia.
    - exfalso. exact (proj2 (Hfr _ E1) _ eq_refl). }
  destruct (rotate_fs_spec (wfs w) (cname c) (rname c (length cl)) (wino wr) (wpend wr) now W
              (fun E => rname_not_cname c _ (eq_sym E)) Hc Ht) as [f1 [Er R]].
  cbn zeta in R. destruct R as [L1c [Hino1 [W3 [Hnew [L3c [L3t [L3o [Hlen [Inew [Iold Ioth]]]]]]]]]].
  exists f1. split; [exact Er|]. split; [exact L1c|]. intros w3 Q3 F3'.
  set (new := snd (create_file f1 (cname c) 0%N now)) in *.
  set (f3 := append_ino (fst (create_file f1 (cname c) 0%N now)) (wino wr) (wpend wr)) in *.
  pose proof (wf_bound _ W _ _ Hc) as Hold.
  assert (Hkeep : forall n j, lookup (wfs w) n = Some j -> n <> cname c -> n <> rname c (length cl) ->
            lookup f3 n = Some j /\ inode f3 j = inode (wfs w) j).
  { intros n j Lj Hn1 Hn2. rewrite L3o by assumption. split; [exact Lj|]. apply Ioth.
    - pose proof (wf_bound _ W _ _ Lj). rewrite Hnew. lia.
    - intros ->. exact (Hn1 (wf_inj _ W _ _ _ Lj Hc)). }
  split; [|split].
  { constructor.
    - exact Q3.
    - rewrite F3'. exact W3.
    - rewrite F3'. exact L3c.
    - rewrite F3'. cbn [wino]. rewrite Inew. split; reflexivity.
    - intros i Hi. rewrite app_length in Hi. cbn [length] in Hi. rewrite F3'.
      destruct (Nat.eq_dec i (length cl)) as [->|Hne].
      + exists (wino wr). split; [exact L3t|]. split.
        * rewrite Iold. exact Hcp.
        * unfold content at 1. rewrite Iold. cbn [with_data fdata]. rewrite app_nth2, Nat.sub_diag by lia. reflexivity.
      + assert (Hi' : i < length cl) by lia. destruct (Hcl i Hi') as [j [Lj [Pj Cj]]].
        destruct (Hkeep _ j Lj (rname_not_cname c i)) as [Lj' Ij]; [intros E; apply rname_inj in E; lia|].
        exists j. split; [exact Lj'|]. unfold content. rewrite Ij. split; [exact Pj|]. rewrite app_nth1 by assumption. exact Cj.
    - intros n d Hin. rewrite F3'. destruct (Hex n d Hin) as [j [Lj [Pj Cj]]].
      destruct (Hfr n (in_map fst _ _ Hin)) as [Hn1 Hn2].
      destruct (Hkeep n j Lj Hn1 (Hn2 _)) as [Lj' Ij].
      exists j. split; [exact Lj'|]. unfold content. rewrite Ij. split; [exact Pj | exact Cj].
    - intros n j Hn. rewrite F3' in Hn.
      destruct (beq_spec n (cname c)) as [->|Hn1]; [left; reflexivity|].
      destruct (beq_spec n (rname c (length cl))) as [->|Hn2].
      + right. left. exists (length cl). rewrite app_length. cbn [length]. split; [lia | reflexivity].
      + rewrite L3o in Hn by assumption. destruct (Hon _ _ Hn) as [E|[[i [Hi E]]|E]]; [contradiction| |].
        * right. left. exists i. rewrite app_length. cbn [length]. split; [lia | exact E].
        * right. right. exact E.
    - exact Hfr.
    - apply wr_ok_nil. }
  { unfold cur_view. rewrite F3'. cbn [wino wpend]. unfold content. rewrite Inew. reflexivity. }
  { unfold file_of. rewrite F3', L3c, Inew. reflexivity. }
Qed.

Lemma rotate_numinv c w wr cl now : NumInv c w wr cl ->
  exists f1, rename (wfs w) (cname c) (rname c (length cl)) = Some f1 /\ lookup f1 (cname c) = None /\
    forall w3, quiet w3 -> wfs w3 = append_ino (fst (create_file f1 (cname c) 0%N now)) (wino wr) (wpend wr) ->
      NumInv c w3 {| wino := snd (create_file f1 (cname c) 0%N now); wpend := []; wcap := c_cap c |} (cl ++ [cur_view w wr])
      /\ cur_view w3 {| wino := snd (create_file f1 (cname c) 0%N now); wpend := []; wcap := c_cap c |} = []
      /\ file_of (wfs w3) (cname c) = Some (fresh_file now).
Proof.
  intros I. destruct (rotate_numinvx c w wr cl [] now (numinv_x _ _ _ _ I)) as [f1 [Er [L1c R]]].
  exists f1. split; [exact Er|]. split; [exact L1c|]. intros w3 Q3 F3.
  destruct (R w3 Q3 F3) as [I3 V3]. split; [exact (numinvx_base _ _ _ _ I3 eq_refl) | exact V3].
Qed.

(* ---- one rotation ---- *)
Lemma mount_next_rotates_x c crit w wr closed extra roll force :
  numrot c crit -> NumInvX c w wr closed extra ->
  force || rotation_necessary w roll = true ->
  exists w' wr' roll',
    mount_next c w (Active (Some (mk_rs (NSNumR (N.of_nat (length closed))) roll)) wr (cname c)) force
      = (Ok tt, w', Active (Some (mk_rs (NSNumR (N.of_nat (length (closed ++ [cur_view w wr])))) roll')) wr' (cname c))
    /\ NumInvX c w' wr' (closed ++ [cur_view w wr]) extra
    /\ cur_view w' wr' = [] /\ roll_size_ok roll' 0 /\ same_env w w'
    /\ roll_kept crit true (wnow w) roll roll' /\ wcap wr' = c_cap c.
Proof.
  intros [Hrot [Hts Hlink]] I Hnec. pose proof (nx_quiet _ _ _ _ _ I) as Q.
  unfold mount_next. cbn [mk_rs rs_roll rs_naming rs_cleanup rs_bg]. rewrite Hnec.
  unfold index_for_rcurrent. rewrite !(name_of_fixed c w) by assumption. fold (nm c cur_infix) (nm c (number_infix (N.of_nat (length closed)))).
  fold (cname c) (rname c (length closed)).
  destruct (rotate_numinvx c w wr closed extra (wnow w) I) as [f1 [Er [L1c RI]]].
  pose proof (p_rename_quiet w (cname c) (rname c (length closed)) Q) as PR. rewrite Er in PR.
  destruct PR as [w1 [Epr [F1 S1]]]. rewrite Epr.
  assert (N1 : name_of c w1 (Some cur_infix) = cname c) by (apply name_of_fixed; assumption).
  rewrite open_log_file_fresh by (try apply S1; try assumption; rewrite N1, F1; exact L1c).
  rewrite N1, F1. pose proof S1 as [Q1 [-> _]].
  (* the old writer is dropped *)
  rewrite w_flush_quiet_eq by (apply quiet_set_fs; exact Q1). unfold w_drop.
  rewrite w_flush_quiet_eq by (apply quiet_set_fs; exact Q1). cbn [fst snd wino wpend set_fs wfs].
  unfold cleanup_or_queue. cbn [mk_rs rs_roll rs_naming rs_cleanup rs_bg cleanup_impl].
  rewrite append_ino_nil_id, !set_fs_set_fs.
  set (w3 := set_fs w1 _).
  destruct (RI w3 Q1 eq_refl) as [I3 [V3 Fo]].
  assert (B : birth_or_now w3 (cname c) = wnow w) by (unfold birth_or_now; rewrite Fo; reflexivity).
  eexists w3, _, (reset_size_and_date w3 roll (cname c)).
  split. { rewrite app_length. cbn [length]. replace (N.of_nat (length closed + 1)) with (N.of_nat (length closed) + 1)%N by lia. reflexivity. }
  split; [exact I3|]. split; [exact V3|]. split; [apply reset_size_zero|].
  split; [exact (same_env_trans _ _ _ S1 (same_env_set_fs w1 _ Q1))|].
  split; [rewrite <- B; apply roll_kept_reset | reflexivity].
Qed.

(* ---- appending to the current inode keeps the invariant ---- *)
Lemma numinvx_append c w w' wr wr' closed extra x :
  NumInvX c w wr closed extra -> wfs w' = append_ino (wfs w) (wino wr) x -> same_env w w' ->
  wino wr' = wino wr -> wr_ok wr' ->
  NumInvX c w' wr' closed extra /\ content (wfs w') (wino wr') = content (wfs w) (wino wr) ++ x.
Proof.
  intros [Q W Hc Hcp Hcl Hex Hon Hfr Hwr] F SE Ei Hok.
  pose proof (wf_bound _ W _ _ Hc) as Hold.
  assert (Hkeep : forall n j, lookup (wfs w) n = Some j -> n <> cname c ->
            lookup (wfs w') n = Some j /\ inode (wfs w') j = inode (wfs w) j).
  { intros n j Lj Hn. rewrite F, lookup_append. split; [exact Lj|].
    rewrite inode_append by assumption. destruct (Nat.eqb_spec j (wino wr)) as [->|]; [|reflexivity].
    exfalso. exact (Hn (wf_inj _ W _ _ _ Lj Hc)). }
  split.
  - constructor.
    + exact (proj1 SE).
    + rewrite F. apply wf_append. exact W.
    + rewrite F, lookup_append, Ei. exact Hc.
    + rewrite F, Ei, inode_append, Nat.eqb_refl by assumption. exact Hcp.
    + intros i Hi. destruct (Hcl i Hi) as [j [Lj [Pj Cj]]]. destruct (Hkeep _ j Lj (rname_not_cname c i)) as [Lj' Ij].
      exists j. unfold content. rewrite Ij. auto.
    + intros n d Hin. destruct (Hex n d Hin) as [j [Lj [Pj Cj]]].
      destruct (Hkeep n j Lj (proj1 (Hfr n (in_map fst _ _ Hin)))) as [Lj' Ij].
      exists j. unfold content. rewrite Ij. auto.
    + intros n j. rewrite F, lookup_append. apply Hon.
    + exact Hfr.
    + exact Hok.
  - rewrite F, Ei, content_append, Nat.eqb_refl by assumption. reflexivity.
Qed.

Lemma numinv_append c w w' wr wr' closed x :
  NumInv c w wr closed -> wfs w' = append_ino (wfs w) (wino wr) x -> same_env w w' ->
  wino wr' = wino wr -> wcap wr' = wcap wr -> wr_ok wr' ->
  NumInv c w' wr' closed /\ content (wfs w') (wino wr') = content (wfs w) (wino wr) ++ x.
Proof.
  intros I F SE Ei Ec Hok.
  destruct (numinvx_append c w w' wr wr' closed [] x (numinv_x _ _ _ _ I) F SE Ei Hok) as [I' C'].
  split; [|exact C']. apply numinvx_base; [exact I'|]. rewrite Ec. exact (ni_cap _ _ _ _ I).
Qed.

Definition st_of (c : config) (n : nat) (roll : roll_state) (wr : writer) : flw :=
  {| f_cfg := c; f_inner := Active (Some (mk_rs (NSNumR (N.of_nat n)) roll)) wr (cname c); f_poisoned := false |}.

(* ---- the first write initialises the writer: empty directory ---- *)
Lemma related_files_empty f sfx fixed : names f = [] -> related_files f sfx fixed = [].
Proof. intros H. unfold related_files, dir_names. rewrite H. reflexivity. Qed.

Lemma existing_rot_empty off sp fixed f flt sel : names f = [] -> existing_rot off sp fixed f flt sel = Some [].
Proof.
  intros H. unfold existing_rot. rewrite related_files_empty by assumption.
  destruct (sel_plain sel), (sel_gz sel), (sel_rcur sel), (sel_custom sel) as [cu|]; cbn [andb]; try destruct (beq cu cur_infix); reflexivity.
Qed.

Lemma numinv_first c w2 f now : quiet w2 -> names f = [] -> inodes f = [] ->
  wfs w2 = fst (create_file f (cname c) 0%N now) ->
  NumInv c w2 {| wino := 0; wpend := []; wcap := c_cap c |} []
  /\ cur_view w2 {| wino := 0; wpend := []; wcap := c_cap c |} = []
  /\ file_of (wfs w2) (cname c) = Some (fresh_file now).
Proof.
  intros Q Hn Hi F2. unfold create_file in F2. cbn [fst] in F2. rewrite Hn, Hi in F2. cbn [length app] in F2.
  assert (Lc : lookup (wfs w2) (cname c) = Some 0) by (rewrite F2; unfold lookup; cbn; rewrite beq_refl; reflexivity).
  split; [|split].
  - constructor; cbn [length wino wpend wcap].
    + exact Q.
    + rewrite F2. split.
      * intros a j. unfold lookup; cbn. destruct (beq (cname c) a); [|discriminate]. intros E; injection E as <-. lia.
      * intros a b j. unfold lookup; cbn. destruct (beq_spec (cname c) a), (beq_spec (cname c) b); try discriminate. congruence.
    + exact Lc.
    + rewrite F2. split; reflexivity.
    + intros i Hi'. lia.
    + intros n j. rewrite F2. unfold lookup; cbn. destruct (beq_spec (cname c) n); [auto | discriminate].
    + apply wr_ok_nil.
    + reflexivity.
  - unfold cur_view, content, inode. rewrite F2. reflexivity.
  - unfold file_of. rewrite Lc, F2. reflexivity.
Qed.

Lemma initialize_empty_roll c crit w :
  numrot c crit -> quiet w -> names (wfs w) = [] -> inodes (wfs w) = [] ->
  exists w' wr,
    initialize c w = (Ok (Active (Some (mk_rs (NSNumR 0) (roll_of crit 0 (wnow w)))) wr (cname c)), w')
    /\ NumInv c w' wr [] /\ cur_view w' wr = [] /\ same_env w w'.
Proof.
  intros [Hrot [Hts Hlink]] Q Hn Hi.
  unfold initialize. rewrite Hrot. unfold init_naming, index_for_rcurrent, with_listing.
  rewrite tick_quiet by assumption.
  unfold get_highest_index, list_log_gz. rewrite existing_rot_empty by assumption. cbn [filter_map_opt max_opt bind].
  (* the rename of a current file that does not exist *)
  assert (E0 : (if negb (c_append c)
                then let '(r, w1) := p_rename w (name_of c w (Some cur_infix)) (name_of c w (Some (number_infix 0))) in
                     match r with ROk => (Ok (0 + 1)%N, w1) | RNotFound => (Ok 0%N, w1) | RErr => (Err, w1) end
                else (Ok 0%N, w)) = (Ok 0%N, w)).
  { destruct (negb (c_append c)); [|reflexivity].
    pose proof (p_rename_quiet w (name_of c w (Some cur_infix)) (name_of c w (Some (number_infix 0))) Q) as PR.
    rewrite rename_none in PR by (apply lookup_empty; assumption). rewrite PR. reflexivity. }
  rewrite E0. cbn [bind].
  rewrite open_log_file_fresh by (try assumption; apply lookup_empty; exact Hn).
  rewrite (name_of_fixed c w) by assumption. fold (nm c cur_infix) (cname c). cbn [bind].
  set (w2 := set_fs w (fst (create_file (wfs w) (cname c) 0%N (wnow w)))).
  destruct (numinv_first c w2 (wfs w) (wnow w) (quiet_set_fs w _ Q) Hn Hi eq_refl) as [I2 [V2 Fo]].
  rewrite (roll_new_quiet w2 crit (c_append c) (cname c) _ (quiet_set_fs w _ Q) Fo). cbn [bind fresh_file fdata fborn length].
  rewrite Hi. cbn [length].
  exists w2, {| wino := 0; wpend := []; wcap := c_cap c |}.
  split; [destruct (c_append c); reflexivity|]. split; [exact I2|]. split; [exact V2|]. apply same_env_set_fs. exact Q.
Qed.

Lemma initialize_empty c crit w :
  numcfg c crit -> quiet w -> names (wfs w) = [] -> inodes (wfs w) = [] ->
  exists w' wr roll,
    initialize c w = (Ok (Active (Some (mk_rs (NSNumR 0) roll)) wr (cname c)), w')
    /\ NumInv c w' wr [] /\ cur_view w' wr = [] /\ roll_size_ok roll 0 /\ same_env w w'
    /\ (forall m, crit = CSize m -> roll = RSize m 0).
Proof.
  intros Hcfg Q Hn Hi. destruct (initialize_empty_roll c crit w (numcfg_rot _ _ Hcfg) Q Hn Hi) as [w' [wr [E [I [V S]]]]].
  exists w', wr, (roll_of crit 0 (wnow w)).
  split; [exact E|]. split; [exact I|]. split; [exact V|]. split; [exact (roll_of_size crit 0 _)|]. split; [exact S|].
  intros m ->. reflexivity.
Qed.

Lemma numinvx_env c w w' wr closed extra : NumInvX c w wr closed extra -> wfs w' = wfs w -> quiet w' -> NumInvX c w' wr closed extra.
Proof. intros [Q W Hc Hcp Hcl Hex Hon Hfr Hwr] F Q'. constructor; try rewrite F; assumption. Qed.

Lemma numinv_env c w w' wr closed : NumInv c w wr closed -> wfs w' = wfs w -> quiet w' -> NumInv c w' wr closed.
Proof. intros I F Q'. exact (numinvx_base _ _ _ _ (numinvx_env _ _ _ _ _ _ (numinv_x _ _ _ _ I) F Q') (ni_cap _ _ _ _ I)). Qed.

Section NumLayout.
Variable cfgp : config -> criterion -> Prop.
Hypothesis Hrot : forall c crit, cfgp c crit -> numrot c crit.

Lemma numx_write extra :
  write_layout cfgp (fun n => NSNumR (N.of_nat n)) (fun c _ => cname c) (fun c w wr cl => NumInvX c w wr cl extra).
Proof.
  constructor.
  - intros c w wr cl. apply nx_quiet.
  - intros c w wr cl. apply nx_wr.
  - intros c w w' wr cl. apply numinvx_env.
  - intros c w w' wr wr' cl x I F S Ei _. exact (numinvx_append c w w' wr wr' cl extra x I F S Ei).
  - intros c crit w wr cl roll force Hcfg I Hn.
    destruct (mount_next_rotates_x c crit w wr cl extra roll force (Hrot _ _ Hcfg) I Hn) as [w' [wr' [roll' [E [I' [V' [Z' [S' [K' _]]]]]]]]].
    exists w', wr', roll'. auto 6.
Qed.

Lemma num_write : write_layout cfgp (fun n => NSNumR (N.of_nat n)) (fun c _ => cname c) NumInv.
Proof.
  constructor.
  - exact ni_quiet.
  - exact ni_wr.
  - exact numinv_env.
  - exact numinv_append.
  - intros c crit w wr cl roll force Hcfg I Hnec.
    destruct (mount_next_rotates_x c crit w wr cl [] roll force (Hrot _ _ Hcfg) (numinv_x _ _ _ _ I) Hnec)
      as [w' [wr' [roll' [E [I' [V' [Z' [S' [K' C']]]]]]]]].
    exists w', wr', roll'. split; [exact E|]. split; [exact (numinvx_base _ _ _ _ I' C') | auto].
Qed.

Lemma num_start : empty_start cfgp (fun n => NSNumR (N.of_nat n)) (fun c _ => cname c) NumInv.
Proof. intros c crit w Hcfg. exact (initialize_empty_roll c crit w (Hrot _ _ Hcfg)). Qed.
End NumLayout.

Lemma numcfg_sync c crit : numcfg c crit -> fts (c_spec c) = false /\ c_async c = false.
Proof. intros [_ [Hts [_ Ha]]]. split; assumption. Qed.

Lemma num_layout : layout numcfg (fun n => NSNumR (N.of_nat n)) (fun c _ => cname c) NumInv.
Proof.
  split; [split|].
  - exact (num_write numcfg numcfg_rot).
  - exact numcfg_sync.
  - exact (num_start numcfg numcfg_rot).
Qed.

Lemma numx_layout extra :
  active_layout numcfg (fun n => NSNumR (N.of_nat n)) (fun c _ => cname c) (fun c w wr cl => NumInvX c w wr cl extra).
Proof. split; [exact (numx_write numcfg numcfg_rot extra) | exact numcfg_sync]. Qed.

Lemma mount_next_rotates c crit w wr closed roll force :
  numcfg c crit -> NumInv c w wr closed ->
  force || rotation_necessary w roll = true ->
  exists w' wr' roll',
    mount_next c w (Active (Some (mk_rs (NSNumR (N.of_nat (length closed))) roll)) wr (cname c)) force
      = (Ok tt, w', Active (Some (mk_rs (NSNumR (N.of_nat (length (closed ++ [cur_view w wr])))) roll')) wr' (cname c))
    /\ NumInv c w' wr' (closed ++ [cur_view w wr])
    /\ cur_view w' wr' = [] /\ roll_size_ok roll' 0 /\ same_env w w'
    /\ (forall m cur, roll = RSize m cur -> exists cur', roll' = RSize m cur').
Proof.
  intros Hcfg I Hnec.
  destruct (lo_rotate _ _ _ _ num_layout c crit w wr closed roll force Hcfg I Hnec) as [w' [wr' [roll' [E [I' [V' [Z' [S' [R' _]]]]]]]]].
  exists w', wr', roll'. auto 6.
Qed.

(* ---- a write on an active writer ---- *)
Lemma write_active c crit w wr closed roll b :
  numcfg c crit -> NumInv c w wr closed -> roll_size_ok roll (length (cur_view w wr)) ->
  let rot := rotation_necessary w roll in
  exists w' wr' roll' closed',
    write_buffer (st_of c (length closed) roll wr) w b = (Ok tt, w', st_of c (length closed') roll' wr', rot)
    /\ NumInv c w' wr' closed' /\ roll_size_ok roll' (length (cur_view w' wr')) /\ same_env w w'
    /\ (closed', cur_view w' wr') = (if rot then (closed ++ [cur_view w wr], b) else (closed, cur_view w wr ++ b))
    /\ (forall m cur, roll = RSize m cur -> exists cur', roll' = RSize m cur').
Proof.
  intros Hcfg I Hsz.
  destruct (active_write _ _ _ _ num_layout c crit w wr closed roll 0 b Hcfg I Hsz) as [w' [wr' [roll' [cl' [E [I' [Z' [S' [V' [R' _]]]]]]]]]].
  rewrite ghost_none in Z'. exists w', wr', roll', cl'. auto 7.
Qed.

(* ---- flush ---- *)
Lemma flush_active c w wr closed roll :
  NumInv c w wr closed ->
  exists w' wr', flush_state (st_of c (length closed) roll wr) w = (true, w', st_of c (length closed) roll wr')
    /\ NumInv c w' wr' closed /\ cur_view w' wr' = cur_view w wr /\ wpend wr' = [] /\ same_env w w'.
Proof. exact (active_flush _ _ _ _ num_layout c w wr closed roll). Qed.
