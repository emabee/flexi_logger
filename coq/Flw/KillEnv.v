(* The dead process and the environment: KillFacts.v shows that a dead process (kill point reached) leaves the FILE SYSTEM
   alone in every basic operation.  Here, in addition: it does not touch the zone offset, and the clock moves only by the
   ticks of the history (the clock goes on after the process has died).  Needed for the time-stamp namings, where the new
   writer names its file by the clock: the clock at the restart is not earlier than any time stamp in the directory.
   Also what the kill-and-restart theorems of these namings share: calm (the world after OCrash) and restart_ops (the
   history of the new writer, after an optional clock tick). *)
Require Import FL.Base.Bytes FL.Base.PathName FL.Fs.Fs FL.Time.TsFormat
  FL.Names.FileSpec FL.Flw.Model FL.Flw.ModelFacts FL.Flw.Run FL.Flw.KillFacts FL.Flw.NumInv FL.Flw.NumKillRestart FL.Flw.TsNames FL.Flw.TsRun.
From Coq Require Import Lia.
Open Scope nat_scope.

(* w' is dead, and has the file system, the clock and the zone of w *)
Definition frozen_e (w w' : world) : Prop := dead w' /\ wfs w' = wfs w /\ wnow w' = wnow w /\ woff w' = woff w.

Lemma frozen_e_refl w : dead w -> frozen_e w w.
Proof. intros H. repeat split; apply H. Qed.
Lemma frozen_e_trans a b c : frozen_e a b -> frozen_e b c -> frozen_e a c.
Proof. intros [_ [F1 [N1 O1]]] [D2 [F2 [N2 O2]]]. split; [exact D2|]. repeat split; congruence. Qed.
Lemma frozen_e_frozen w w' : frozen_e w w' -> frozen w w'.
Proof. intros [D [F _]]. split; assumption. Qed.
Lemma frozen_e_set_acts w n : dead w -> frozen_e w (set_acts w n).
Proof. intros H. split; [exact H|]. repeat split. Qed.

(* one basic operation of a dead process: the file system and the zone stay, the clock moves by the tick *)
Definition after_dead (w w' : world) (dt : Z) : Prop :=
  dead w' /\ wfs w' = wfs w /\ wnow w' = (wnow w + dt)%Z /\ woff w' = woff w.

Lemma frozen_e_after w w' : frozen_e w w' -> after_dead w w' 0.
Proof. intros [D [F [N O]]]. split; [exact D|]. split; [exact F|]. split; [rewrite N; apply Zplus_0_r_reverse | exact O]. Qed.

Theorem dead_step_e x o : dead (s_w x) -> kbasic_op o -> after_dead (s_w x) (s_w (fst (step x o))) (dt_of o).
Proof.
  intros H Ho. destruct (dead_step_acts x o H Ho) as [n E]. rewrite E.
  destruct o; try contradiction; try (apply frozen_e_after, frozen_e_set_acts; exact H).
  split; [exact H|]. repeat split.
Qed.

Lemma dead_run_e : forall ops x, dead (s_w x) -> Forall kbasic_op ops -> after_dead (s_w x) (s_w (fst (run x ops))) (elapsed ops).
Proof.
  induction ops as [|o r IH]; intros x H Hb.
  - cbn [run fst elapsed]. apply frozen_e_after. apply frozen_e_refl. exact H.
  - inversion Hb as [|o' r' Ho Hr]; subst. cbn [run elapsed].
    pose proof (dead_step_e x o H Ho) as F1. destruct (step x o) as [x1 ob]. cbn [fst] in F1.
    specialize (IH x1 (proj1 F1) Hr). destruct (run x1 r) as [x2 obs]. cbn [fst] in *.
    destruct F1 as [_ [F1 [N1 O1]]]. destruct IH as [D2 [F2 [N2 O2]]].
    split; [exact D2|]. split; [congruence|]. split; [rewrite N2, N1; symmetry; apply Zplus_assoc | congruence].
Qed.
Print Assumptions dead_run_e.

(* the first write of a writer whose initialisation was killed *)
Lemma wb_initial_dead_e s w b r0 w0 : f_inner s = Initial -> initialize (f_cfg s) w = (r0, w0) -> dead w0 ->
  exists r w' s' rot, write_buffer s w b = (r, w', s', rot) /\ frozen_e w0 w'.
Proof.
  intros Hi E H0. destruct (wb_initial_dead_acts s w b r0 w0 Hi E H0) as [r [n [s' [rot Ew]]]].
  eexists _, _, _, _. split; [exact Ew | apply frozen_e_set_acts; exact H0].
Qed.

(* what OCrash makes of the world of the dead process *)
Definition calm (w : world) : world := set_acts (set_kill w None) 0.

Lemma quiet_calm w : wfaults w = [] -> quiet (calm w).
Proof. intros F. split; [exact F | reflexivity]. Qed.

(* ------------------------------------------------------------------ the restart after the kill *)
Lemma tag_ok_spec c c' : c_spec c' = c_spec c -> tag_ok c -> tag_ok c'.
Proof. intros E. unfold tag_ok, fixed0. rewrite E. exact (fun H => H). Qed.

(* tick: the clock advances by dt >= 0 between the crash and the start of the new writer (tick = None: no operation in between) *)
Definition restart_ops (tick : option Z) (c' : config) (ops3 : list op) : list op :=
  match tick with Some dt => [OTick dt] | None => [] end ++ OStart c' :: ops3 ++ [OStop].
Definition tick_dt (tick : option Z) : Z := match tick with Some dt => dt | None => 0%Z end.

(* a property of the idle system that every clock tick keeps holds after the optional tick *)
Lemma tick_between (P : sys -> Prop) x tick : (0 <= tick_dt tick)%Z -> P x ->
  (forall dt, (0 <= dt)%Z -> P (fst (step x (OTick dt))) /\ wnow (s_w (fst (step x (OTick dt)))) = (wnow (s_w x) + dt)%Z
                             /\ obs_ok (snd (step x (OTick dt)))) ->
  Forall obs_ok (snd (run x (match tick with Some dt => [OTick dt] | None => [] end)))
  /\ P (fst (run x (match tick with Some dt => [OTick dt] | None => [] end)))
  /\ wnow (s_w (fst (run x (match tick with Some dt => [OTick dt] | None => [] end)))) = (wnow (s_w x) + tick_dt tick)%Z.
Proof.
  intros Hdt Px H. destruct tick as [dt|]; cbn [tick_dt] in *.
  - cbn [run]. destruct (H dt Hdt) as [P0 [W0 Ka]]. destruct (step x (OTick dt)) as [xa oba]. cbn [fst snd] in *.
    split; [constructor; [exact Ka | constructor]|]. split; [exact P0 | exact W0].
  - cbn [run fst snd]. split; [constructor|]. split; [exact Px | lia].
Qed.
