(* C19 with rotation: the executable SPECIFICATION of what a FileLogWriter with Numbers naming (rCURRENT, r00000,
   r00001, ...), size criterion, direct mode (no buffer), no cleanup, synchronous, makes of a list of records when
   the file-system calls fail as an arbitrary fault oracle says; and what the specification implies.
   The refinement proof (the model `run` does exactly this) is in FaultRotation.v.
   The file also holds what all fault specifications share: the oracle and its accounting, the log calls of a run (entry),
   and Record spec, for whose members the consequences are proved once; simr is the member rot_spec.

   What the model (and the code) does, read off write_buffer / mount_next / initialize:

   (iii) a failing step of the INITIALISATION (the listing read_dir, the rename of an old rCURRENT [no append],
         the open/create of rCURRENT, the metadata call [append]): initialize returns Err, write_buffer returns Err
         BEFORE anything is written, the record is LOST, the handle reports EWrite, the state stays `Initial`:
         the next record initialises again from the beginning (lists again).  With append, an rCURRENT that was
         created before the failing metadata call stays (empty) and is continued later.
   (i)   the RENAME of rCURRENT at a rotation fails: mount_next returns Err with the state unchanged, write_buffer
         reports ELogFile and then WRITES THE RECORD WITH THE OLD WRITER, i.e. into the (over-full) rCURRENT.
         Nothing is lost; the size counter still exceeds the limit, so the next record tries the rotation again.
   (ii)  the rename succeeds, the OPEN/CREATE of the new rCURRENT fails: mount_next returns Err, the naming state
         has been advanced (index + 1), the writer is still the old one, whose file is now called r<index>;
         write_buffer reports ELogFile and WRITES THE RECORD INTO THE RENAMED FILE.  Nothing is lost and the order
         is kept (that file is the newest closed file, there is no rCURRENT).  The next record tries the rotation
         again: the rename finds no rCURRENT (NotFound is tolerated, the index is not advanced a second time), a
         new rCURRENT is created.
   (iv)  the WRITE itself fails: write_buffer returns Err, the size counter is not increased, the record is LOST,
         the handle reports EWrite; the writer state is as before.
   Every oracle entry `true` that is consumed yields exactly one reported error (ELogFile: rotation step, record
   kept; EWrite: record lost).  No log call panics or returns an error. *)
Require Import FL.Base.Bytes FL.Base.BytesFacts FL.Fs.Fs FL.Flw.Model FL.Flw.Run FL.Flw.NumRun FL.Flw.FaultFacts.
From Coq Require Import ZifyN ZifyNat ZifyBool.
Open Scope nat_scope.

(* ------------------------------------------------------------------ the specification *)
(* the abstract state: directory and writer *)
Inductive sst :=
| SInit (created : bool)             (* writer not initialised; no closed files; rCURRENT absent / present and empty *)
| SCur (cl : list bytes) (d : bytes) (* closed files cl, rCURRENT holds d, the writer writes into rCURRENT *)
| SOld (cl : list bytes) (d : bytes). (* closed files cl ++ [d], NO rCURRENT: it was renamed to r<length cl>, the new one
                                        could not be created; the writer still writes into the renamed file *)

Definition st_closed (st : sst) : list bytes :=
  match st with SInit _ => [] | SCur cl _ => cl | SOld cl d => cl ++ [d] end.
Definition st_cur (st : sst) : option bytes :=
  match st with SInit created => if created then Some [] else None | SCur _ d => Some d | SOld _ _ => None end.
(* what a reader finds: r00000 ++ r00001 ++ ... ++ rCURRENT *)
Definition stream (st : sst) : bytes := concat (st_closed st) ++ match st_cur st with Some d => d | None => [] end.

(* one fallible call takes the next oracle entry (true = the call fails); an exhausted oracle lets everything succeed *)
Definition pop (fl : list bool) : bool * list bool := (hd false fl, tl fl).
(* the write(2) call of one record: none for an empty record *)
Definition wr_pop (b : bytes) (fl : list bool) : bool * list bool := match b with [] => (false, fl) | _ => pop fl end.

(* the record is written into the file that holds d *)
Definition s_write (d b : bytes) (fl : list bool) : bytes * list ecode * list bool :=
  let '(f, fl1) := wr_pop b fl in if f then (d, [EWrite], fl1) else (d ++ b, [], fl1).

(* an initialised writer whose file (rCURRENT, or - old = true - the newest closed file) holds d *)
Definition s_active (m : N) (old : bool) (cl : list bytes) (d b : bytes) (fl : list bool) : sst * list ecode * list bool :=
  let same d' := if old then SOld cl d' else SCur cl d' in
  if (m <? N.of_nat (length d))%N then
    let '(f1, fl1) := pop fl in                               (* rename rCURRENT -> r<index> *)
    if f1 then let '(d', e, fl2) := s_write d b fl1 in (same d', ELogFile :: e, fl2)
    else
      let '(f2, fl2) := pop fl1 in                            (* create the new rCURRENT *)
      if f2 then let '(d', e, fl3) := s_write d b fl2 in (SOld cl d', ELogFile :: e, fl3)
      else let '(d', e, fl3) := s_write [] b fl2 in (SCur (cl ++ [d]) d', e, fl3)
  else let '(d', e, fl1) := s_write d b fl in (same d', e, fl1).

(* a writer that is not initialised yet, in a directory without closed files *)
Definition s_init (app : bool) (m : N) (created : bool) (b : bytes) (fl : list bool) : sst * list ecode * list bool :=
  let '(f1, fl1) := pop fl in                                 (* read_dir *)
  if f1 then (SInit created, [EWrite], fl1) else
  let '(f2, fl2) := if app then (false, fl1) else pop fl1 in  (* rename of an old rCURRENT (not with append) *)
  if f2 then (SInit created, [EWrite], fl2) else
  let '(f3, fl3) := pop fl2 in                                (* open/create rCURRENT *)
  if f3 then (SInit created, [EWrite], fl3) else
  let '(f4, fl4) := if app then pop fl3 else (false, fl3) in  (* metadata (with append) *)
  if f4 then (SInit true, [EWrite], fl4) else
  s_active m false [] [] b fl4.

Definition sstep (app : bool) (m : N) (st : sst) (fl : list bool) (b : bytes) : sst * list ecode * list bool :=
  match st with
  | SInit created => s_init app m created b fl
  | SCur cl d => s_active m false cl d b fl
  | SOld cl d => s_active m true cl d b fl
  end.

Fixpoint simr_st (app : bool) (m : N) (st : sst) (fl : list bool) (recs : list bytes) : sst * list ecode * list bool :=
  match recs with
  | [] => (st, [], fl)
  | b :: rest =>
    let '(st1, e1, fl1) := sstep app m st fl b in
    let '(st2, e2, fl2) := simr_st app m st1 fl1 rest in (st2, e1 ++ e2, fl2)
  end.

(* the specification as a function of oracle and records: closed files, current file, reported errors (with their
   codes; their number is the length), the rest of the oracle *)
Definition simr (app : bool) (m : N) (fl : list bool) (recs : list bytes) : list bytes * option bytes * list ecode * list bool :=
  let '(st, e, fl') := simr_st app m (SInit false) fl recs in (st_closed st, st_cur st, e, fl').

Definition is_ewrite (e : ecode) : bool := match e with EWrite => true | _ => false end.
(* the record of a log call with these reports is lost / the number of lost records *)
Definition lost (e : list ecode) : bool := existsb is_ewrite e.
Definition nlost (e : list ecode) : nat := length (filter is_ewrite e).
(* the number of failing calls among the oracle entries *)
Definition ntrue (l : list bool) : nat := length (filter (fun x => x) l).

Lemma ntrue_app a b : ntrue (a ++ b) = ntrue a + ntrue b.
Proof. unfold ntrue. rewrite filter_app, app_length. reflexivity. Qed.
Lemma ntrue_cons f l : ntrue (f :: l) = (if f then 1 else 0) + ntrue l.
Proof. unfold ntrue. cbn [filter]. destruct f; reflexivity. Qed.

Lemma ntrue_0_all_false l : ntrue l = 0 <-> (forall f, In f l -> f = false).
Proof.
  induction l as [|f r IH]; [cbn; tauto|]. rewrite ntrue_cons. split.
  - intros H x [<-|Hx]; [destruct f; [cbn in H; lia | reflexivity] | apply IH; [destruct f; cbn in H; lia | exact Hx]].
  - intros H. rewrite (H f (or_introl eq_refl)). cbn. apply IH. intros x Hx. apply H. right. exact Hx.
Qed.

Lemma lost_nlost e : lost e = true <-> 1 <= nlost e.
Proof.
  unfold lost, nlost. induction e as [|x r IH]; cbn [existsb filter length]; [split; [discriminate | lia]|].
  destruct (is_ewrite x); cbn [orb length]; [split; [lia | reflexivity] | exact IH].
Qed.
Lemma lost_false_nlost e : lost e = false -> nlost e = 0.
Proof. intros H. destruct (nlost e) eqn:E; [reflexivity|]. assert (lost e = true) by (apply lost_nlost; lia). congruence. Qed.
Lemma lost_ewrite e : lost e = true -> In EWrite e.
Proof. unfold lost. intros H. apply existsb_exists in H. destruct H as [c [Hc Ec]]. destruct c; try discriminate. exact Hc. Qed.

Lemma lost_app_nolost e1 e2 : lost e1 = false -> lost (e1 ++ e2) = lost e2.
Proof. unfold lost. intros H. rewrite existsb_app, H. reflexivity. Qed.

Lemma nlost_app a b : nlost (a ++ b) = nlost a + nlost b.
Proof. unfold nlost. rewrite filter_app, app_length. reflexivity. Qed.
Lemma nlost_le e : nlost e <= length e.
Proof. unfold nlost. induction e as [|x r IH]; cbn [filter length]; [lia|]. destruct (is_ewrite x); cbn [length]; lia. Qed.

Definition acct (fl fl' : list bool) (k : nat) : Prop := exists used, fl = used ++ fl' /\ ntrue used = k.
Lemma acct_refl fl : acct fl fl 0.
Proof. exists []. split; reflexivity. Qed.
Lemma acct_trans fl fl1 fl2 a b : acct fl fl1 a -> acct fl1 fl2 b -> acct fl fl2 (a + b).
Proof. intros [u1 [E1 N1]] [u2 [E2 N2]]. exists (u1 ++ u2). split; [rewrite E1, E2, app_assoc; reflexivity | rewrite ntrue_app; lia]. Qed.

Lemma pop_cases fl : (fl = [] /\ pop fl = (false, [])) \/ exists f r, fl = f :: r /\ pop fl = (f, r).
Proof. destruct fl as [|f r]; [left; split; reflexivity | right; exists f, r; split; reflexivity]. Qed.

Lemma pop_used fl : acct fl (snd (pop fl)) (if fst (pop fl) then 1 else 0).
Proof. destruct fl as [|[|] r]; cbn [pop hd tl fst snd]; [apply acct_refl | exists [true]; split; reflexivity | exists [false]; split; reflexivity]. Qed.
Lemma wr_pop_used b fl : acct fl (snd (wr_pop b fl)) (if fst (wr_pop b fl) then 1 else 0).
Proof. unfold wr_pop. destruct b; [apply acct_refl | apply pop_used]. Qed.
(* a call that only one of the two settings of a flag makes *)
Lemma pop_if_used (g : bool) fl :
  acct fl (snd (if g then pop fl else (false, fl))) (if fst (if g then pop fl else (false, fl)) then 1 else 0)
  /\ acct fl (snd (if g then (false, fl) else pop fl)) (if fst (if g then (false, fl) else pop fl) then 1 else 0).
Proof. destruct g; split; try apply pop_used; apply acct_refl. Qed.

Definition all_false (fl : list bool) : Prop := forall f, In f fl -> f = false.
Lemma pop_all_false fl : all_false fl -> fst (pop fl) = false /\ all_false (snd (pop fl)).
Proof.
  intros H. destruct fl as [|f r]; cbn [pop hd tl fst snd]; [split; [reflexivity | exact H]|].
  split; [apply H; left; reflexivity | intros x Hx; apply H; right; exact Hx].
Qed.
Lemma pop_if_all_false (g : bool) fl : all_false fl ->
  (fst (if g then pop fl else (false, fl)) = false /\ all_false (snd (if g then pop fl else (false, fl))))
  /\ (fst (if g then (false, fl) else pop fl) = false /\ all_false (snd (if g then (false, fl) else pop fl))).
Proof. intros H. destruct g; split; try (apply pop_all_false; exact H); (split; [reflexivity | exact H]). Qed.

Lemma s_write_ok d b fl :
  let '(d', e, fl') := s_write d b fl in
  exists used, fl = used ++ fl' /\ length e = ntrue used /\ (e = [] \/ e = [EWrite])
    /\ d' = d ++ (if lost e then [] else b).
Proof.
  unfold s_write. destruct (wr_pop_used b fl) as [u [U N]]. destruct (wr_pop b fl) as [f fl1]. cbn [fst snd] in *.
  destruct f; exists u; cbn [lost existsb is_ewrite orb length]; [rewrite app_nil_r|]; auto.
Qed.

Lemma s_write_facts d b fl :
  let '(d', e, fl') := s_write d b fl in (e = [] \/ e = [EWrite]) /\ d' = d ++ (if lost e then [] else b).
Proof.
  pose proof (s_write_ok d b fl) as S. destruct (s_write d b fl) as [[d' e] fl']. destruct S as [used [_ [_ [Hc Hd]]]]. split; assumption.
Qed.
Lemma acct_write d b fl : acct fl (snd (s_write d b fl)) (length (snd (fst (s_write d b fl)))).
Proof.
  pose proof (s_write_ok d b fl) as S. destruct (s_write d b fl) as [[d' e] fl']. cbn [fst snd].
  destruct S as [used [Hu [He _]]]. exists used. split; [exact Hu | symmetry; exact He].
Qed.

Lemma s_write_all_false d b fl : all_false fl -> let '(d', e, fl1) := s_write d b fl in d' = d ++ b /\ e = [] /\ all_false fl1.
Proof.
  intros H. unfold s_write, wr_pop. destruct b as [|x b']; [rewrite app_nil_r; auto|].
  destruct (pop_all_false fl H) as [E1 E2]. destruct (pop fl) as [f fl1]. cbn [fst snd] in *. subst f. auto.
Qed.

Lemma s_write_pending d b fl : let '(d', _, _) := s_write d b fl in length d <= length d'.
Proof.
  unfold s_write. destruct (wr_pop b fl) as [f fl1]. destruct f; [lia | rewrite app_length; lia].
Qed.

Lemma s_write_codes d b fl c : In c (snd (fst (s_write d b fl))) -> c = EWrite \/ c = ELogFile.
Proof. unfold s_write. destruct (wr_pop b fl) as [f fl1]. destruct f; cbn [fst snd]; [intros [<-|[]]; auto | intros []]. Qed.

(* per record: the record, the reports of its log call, the oracle entries its log call consumed *)
Record entry := { t_rec : bytes; t_errs : list ecode; t_used : list bool }.
Definition t_kept (x : entry) : bytes := if lost (t_errs x) then [] else t_rec x.

Lemma firstn_used {A} (used rest : list A) : firstn (length (used ++ rest) - length rest) (used ++ rest) = used.
Proof.
  rewrite app_length. replace (length used + length rest - length rest) with (length used + 0) by lia.
  rewrite firstn_app_2. cbn. apply app_nil_r.
Qed.

Lemma entry_kept x : length (t_errs x) = ntrue (t_used x) ->
  ((forall f, In f (t_used x) -> f = false) -> t_errs x = [] /\ t_kept x = t_rec x)
  /\ (t_kept x <> t_rec x -> In true (t_used x) /\ In EWrite (t_errs x)).
Proof.
  intros Hn. unfold t_kept. split.
  - intros Hall. apply ntrue_0_all_false in Hall. rewrite Hall in Hn.
    destruct (t_errs x); [split; reflexivity | discriminate].
  - intros Hk. destruct (lost (t_errs x)) eqn:El; [|congruence]. split; [|apply lost_ewrite; exact El].
    destruct (in_dec Bool.bool_dec true (t_used x)) as [Hi|Hi]; [exact Hi|]. exfalso.
    assert (Hall : forall f, In f (t_used x) -> f = false) by (intros [|] Hf; [contradiction | reflexivity]).
    apply ntrue_0_all_false in Hall. rewrite Hall in Hn. destruct (t_errs x); [discriminate El | discriminate Hn].
Qed.

Definition stream_step_ok {St} (strm : St -> bytes) (st : St) (fl : list bool) (b : bytes) (r : St * list ecode * list bool) : Prop :=
  let '(st', e, fl') := r in
  exists used, fl = used ++ fl' /\ length e = ntrue used /\ nlost e <= 1
    /\ strm st' = strm st ++ (if lost e then [] else b).

Lemma stream_step_prefix {St} (strm : St -> bytes) st st0 fl fl0 b r : acct fl fl0 0 -> strm st0 = strm st ->
  stream_step_ok strm st0 fl0 b r -> stream_step_ok strm st fl b r.
Proof.
  intros [pre [Hfl Hn]] Hs. destruct r as [[st' e] fl']. intros [used [Hu [He [Hl Hst]]]].
  exists (pre ++ used). rewrite ntrue_app, Hn, Hfl, Hu, app_assoc, Hst, Hs. auto.
Qed.

(* the write that ends a log call: the calls before it consumed the oracle down to fl0 and reported errs0, none of them
   EWrite; the record goes into the file that holds d, which is the end of the stream *)
Lemma write_step_ok {St} (strm : St -> bytes) st fl b fl0 errs0 base d (mk : bytes -> St) :
  acct fl fl0 (length errs0) -> nlost errs0 = 0 -> strm st = base ++ d -> (forall d', strm (mk d') = base ++ d') ->
  let '(d', e, fl1) := s_write d b fl0 in stream_step_ok strm st fl b (mk d', errs0 ++ e, fl1).
Proof.
  intros [pre [Hfl Hn]] Hnl Hst Hmk. pose proof (s_write_ok d b fl0) as S.
  destruct (s_write d b fl0) as [[d' e] fl1]. destruct S as [used [Hu [He [Hc Hd]]]].
  exists (pre ++ used). split; [rewrite Hfl, Hu, app_assoc; reflexivity|].
  split; [rewrite app_length, ntrue_app; lia|].
  split; [rewrite nlost_app; destruct Hc as [->| ->]; cbn; lia|].
  assert (El : lost (errs0 ++ e) = lost e).
  { unfold lost. rewrite existsb_app. fold (lost errs0). destruct (lost errs0) eqn:E0; [|reflexivity].
    apply lost_nlost in E0. lia. }
  rewrite El, Hmk, Hst, Hd, app_assoc. reflexivity.
Qed.

(* Some k: a call failed, k calls were still to come; None: all succeeded *)
Fixpoint npops (n : nat) (fl : list bool) : option nat * list bool :=
  match n with
  | O => (None, fl)
  | S k => let '(f, fl1) := pop fl in if f then (Some k, fl1) else npops k fl1
  end.

Definition failed {A} (o : option A) : nat := match o with Some _ => 1 | None => 0 end.

Lemma npops_used n : forall fl, acct fl (snd (npops n fl)) (failed (fst (npops n fl))).
Proof.
  induction n as [|k IH]; intros fl; cbn [npops]; [apply acct_refl|].
  pose proof (pop_used fl) as U. destruct (pop fl) as [f fl1]. cbn [fst snd] in U. destruct f; [exact U|].
  exact (acct_trans _ _ _ _ _ U (IH fl1)).
Qed.

Lemma npops_all_false n : forall fl, all_false fl -> fst (npops n fl) = None /\ all_false (snd (npops n fl)).
Proof.
  induction n as [|k IH]; intros fl Hf; cbn [npops]; [split; [reflexivity | exact Hf]|].
  destruct (pop_all_false fl Hf) as [E1 E2]. destruct (pop fl) as [f fl1]. cbn [fst snd] in *. subst f. apply IH. exact E2.
Qed.

Lemma npops_app n k : forall fl,
  npops (n + k) fl = match npops n fl with (Some j, fl') => (Some (j + k), fl') | (None, fl') => npops k fl' end.
Proof.
  induction n as [|n IH]; intros fl; cbn [npops Nat.add]; [reflexivity|].
  destruct (pop fl) as [f fl1]. destruct f; [reflexivity | apply IH].
Qed.

(* the calls of one initialisation: n in a row and, if meta, one more after the file was created.
   None = it succeeds; Some k = it fails (k: after the file was created) *)
Definition init_pops (n : nat) (meta : bool) (fl : list bool) : option bool * list bool :=
  match npops n fl with
  | (Some _, fl') => (Some false, fl')
  | (None, fl') => let '(f, fl1) := if meta then pop fl' else (false, fl') in if f then (Some true, fl1) else (None, fl1)
  end.

Lemma init_pops_used n meta fl : acct fl (snd (init_pops n meta fl)) (failed (fst (init_pops n meta fl))).
Proof.
  unfold init_pops. pose proof (npops_used n fl) as U.
  destruct (npops n fl) as [[j|] fl']; cbn [fst snd] in U; [exact U|].
  destruct (pop_if_used meta fl') as [U1 _]. destruct (if meta then pop fl' else (false, fl')) as [f fl1]. cbn [fst snd] in U1.
  destruct f; exact (acct_trans _ _ _ _ _ U U1).
Qed.

Lemma init_pops_all_false n meta fl : all_false fl -> fst (init_pops n meta fl) = None /\ all_false (snd (init_pops n meta fl)).
Proof.
  intros Hf. unfold init_pops. destruct (npops_all_false n fl Hf) as [E1 E2].
  destruct (npops n fl) as [o fl']. cbn [fst snd] in *. subst o.
  destruct (pop_if_all_false meta fl' E2) as [[E3 E4] _]. destruct (if meta then pop fl' else (false, fl')) as [f fl1].
  cbn [fst snd] in *. subst f. split; [reflexivity | exact E4].
Qed.

(* write_step_ok with the write inside the result, as the step functions have it *)
Lemma write_step_in {St} (strm : St -> bytes) st fl b fl0 errs0 base d (mk : bytes -> St) :
  acct fl fl0 (length errs0) -> nlost errs0 = 0 -> strm st = base ++ d -> (forall d', strm (mk d') = base ++ d') ->
  stream_step_ok strm st fl b (let '(d', e, fl1) := s_write d b fl0 in (mk d', errs0 ++ e, fl1)).
Proof.
  intros U Hnl Hst Hmk. pose proof (write_step_ok strm st fl b fl0 errs0 base d mk U Hnl Hst Hmk) as K.
  destruct (s_write d b fl0) as [[d' e] fl1]. exact K.
Qed.

Lemma write_step_codes {St} (mk : bytes -> St) errs0 d b fl c : (forall x, In x errs0 -> x = EWrite \/ x = ELogFile) ->
  In c (snd (fst (let '(d', e, fl') := s_write d b fl in (mk d', errs0 ++ e, fl')))) -> c = EWrite \/ c = ELogFile.
Proof.
  intros H0. pose proof (s_write_codes d b fl c) as X. destruct (s_write d b fl) as [[d' e] fl1]. cbn [fst snd] in *.
  intros H. apply in_app_or in H. destruct H; auto.
Qed.

Lemma init_fails_ok {St} (strm : St -> bytes) (st st1 : St) fl fl' b : acct fl fl' 1 -> strm st = [] -> strm st1 = [] ->
  stream_step_ok strm st fl b (st1, [EWrite], fl').
Proof. intros [used [Hfl Hn]] Hs Hs1. exists used. rewrite Hs, Hs1. cbn. auto. Qed.


(* A specification of this family: a state with its stream, a step per record under the oracle (in a context that
   each record advances: the clock of the namings by time stamp; unit for the others), the run and its trace, written
   as Fixpoints over the list of records, and what every step does *)
Record spec := {
  sp_ctx : Type; sp_st : Type; sp_rec : Type;
  sp_adv : sp_ctx -> sp_rec -> sp_ctx;
  sp_bytes : sp_rec -> bytes;
  sp_stream : sp_st -> bytes;
  sp_step : sp_ctx -> sp_st -> list bool -> sp_rec -> sp_st * list ecode * list bool;
  sp_sim : sp_ctx -> sp_st -> list bool -> list sp_rec -> sp_st * list ecode * list bool;
  sp_trace : sp_ctx -> sp_st -> list bool -> list sp_rec -> list entry;
  sp_sim_nil : forall c st fl, sp_sim c st fl [] = (st, [], fl);
  sp_sim_cons : forall c st fl r rest, sp_sim c st fl (r :: rest) =
    let '(st1, e1, fl1) := sp_step c st fl r in
    let '(st2, e2, fl2) := sp_sim (sp_adv c r) st1 fl1 rest in (st2, e1 ++ e2, fl2);
  sp_trace_nil : forall c st fl, sp_trace c st fl [] = [];
  sp_trace_cons : forall c st fl r rest, sp_trace c st fl (r :: rest) =
    let '(st1, e1, fl1) := sp_step c st fl r in
    {| t_rec := sp_bytes r; t_errs := e1; t_used := firstn (length fl - length fl1) fl |} :: sp_trace (sp_adv c r) st1 fl1 rest;
  sp_step_ok : forall c st fl r, stream_step_ok sp_stream st fl (sp_bytes r) (sp_step c st fl r) }.

Section Spec.
Variable S : spec.

Theorem sim_trace_gen : forall recs c st fl,
  let '(st', e, fl') := sp_sim S c st fl recs in
  let t := sp_trace S c st fl recs in
  List.map t_rec t = List.map (sp_bytes S) recs
  /\ fl = concat (List.map t_used t) ++ fl'
  /\ e = concat (List.map t_errs t)
  /\ sp_stream S st' = sp_stream S st ++ concat (List.map t_kept t)
  /\ Forall (fun x => length (t_errs x) = ntrue (t_used x) /\ nlost (t_errs x) <= 1) t.
Proof.
  induction recs as [|r rest IH]; intros c st fl.
  - rewrite sp_sim_nil, sp_trace_nil. cbn. rewrite app_nil_r. repeat split. constructor.
  - rewrite sp_sim_cons, sp_trace_cons.
    pose proof (sp_step_ok S c st fl r) as K. destruct (sp_step S c st fl r) as [[st1 e1] fl1].
    specialize (IH (sp_adv S c r) st1 fl1). destruct (sp_sim S (sp_adv S c r) st1 fl1 rest) as [[st2 e2] fl2].
    destruct K as [used [Hu [He [Hl Hs]]]]. destruct IH as [H1 [H2 [H3 [H4 H5]]]].
    cbn [List.map concat t_rec t_used t_errs]. subst fl. rewrite firstn_used.
    split; [rewrite H1; reflexivity|].
    split; [rewrite <- app_assoc, <- H2; reflexivity|].
    split; [rewrite H3; reflexivity|].
    split. { rewrite H4, Hs, <- app_assoc. reflexivity. }
    constructor; [cbn [t_errs t_used]; split; assumption | exact H5].
Qed.

Lemma sim_app_gen : forall recs1 recs2 c st fl,
  sp_sim S c st fl (recs1 ++ recs2)
  = let '(st1, e1, fl1) := sp_sim S c st fl recs1 in
    let '(st2, e2, fl2) := sp_sim S (fold_left (sp_adv S) recs1 c) st1 fl1 recs2 in (st2, e1 ++ e2, fl2).
Proof.
  induction recs1 as [|r rest IH]; intros recs2 c st fl; cbn [Datatypes.app fold_left].
  - rewrite sp_sim_nil. destruct (sp_sim S c st fl recs2) as [[st2 e2] fl2]. reflexivity.
  - rewrite !sp_sim_cons. destruct (sp_step S c st fl r) as [[st1 e1] fl1]. rewrite IH.
    destruct (sp_sim S (sp_adv S c r) st1 fl1 rest) as [[st2 e2] fl2].
    destruct (sp_sim S (fold_left (sp_adv S) rest (sp_adv S c r)) st2 fl2 recs2) as [[st3 e3] fl3]. rewrite app_assoc. reflexivity.
Qed.

Theorem lost_only_around_failures_gen c st fl recs : sp_stream S st = [] ->
  let '(st', e, fl') := sp_sim S c st fl recs in
  let t := sp_trace S c st fl recs in
  List.map t_rec t = List.map (sp_bytes S) recs
  /\ fl = concat (List.map t_used t) ++ fl'
  /\ e = concat (List.map t_errs t)
  /\ sp_stream S st' = concat (List.map t_kept t)
  /\ (forall x, In x t -> length (t_errs x) = ntrue (t_used x))
  /\ (forall x, In x t -> (forall f, In f (t_used x) -> f = false) -> t_errs x = [] /\ t_kept x = t_rec x)
  /\ (forall x, In x t -> t_kept x <> t_rec x -> In true (t_used x) /\ In EWrite (t_errs x)).
Proof.
  intros H0. pose proof (sim_trace_gen recs c st fl) as T.
  destruct (sp_sim S c st fl recs) as [[st' e] fl']. cbv zeta in T |- *.
  destruct T as [H1 [H2 [H3 [H4 H5]]]]. rewrite Forall_forall in H5. rewrite H0 in H4.
  split; [exact H1|]. split; [exact H2|]. split; [exact H3|]. split; [exact H4|].
  split; [intros x Hx; apply (H5 x Hx)|].
  split; intros x Hx; apply entry_kept; apply (H5 x Hx).
Qed.

Theorem loss_is_reported_gen : forall recs c st fl,
  let '(st', e, _) := sp_sim S c st fl recs in
  exists kept, Subseq kept (List.map (sp_bytes S) recs) /\ sp_stream S st' = sp_stream S st ++ concat kept
    /\ length recs = length kept + nlost e /\ nlost e <= length e.
Proof.
  induction recs as [|r rest IH]; intros c st fl.
  - rewrite sp_sim_nil. exists []. cbn. rewrite app_nil_r. repeat split; [constructor | lia].
  - rewrite sp_sim_cons. pose proof (sp_step_ok S c st fl r) as K. destruct (sp_step S c st fl r) as [[st1 e1] fl1].
    specialize (IH (sp_adv S c r) st1 fl1). destruct (sp_sim S (sp_adv S c r) st1 fl1 rest) as [[st2 e2] fl2].
    destruct K as [used [Hu [He [Hl Hs]]]]. destruct IH as [kept [Hsub [Hst [Hlen Hle]]]].
    pose proof (nlost_le (e1 ++ e2)) as Hle2. rewrite nlost_app in *. cbn [List.map length].
    destruct (lost e1) eqn:El.
    + exists kept. split; [constructor; exact Hsub|]. rewrite Hst, Hs, app_nil_r. split; [reflexivity|].
      apply lost_nlost in El. split; lia.
    + exists (sp_bytes S r :: kept). split; [constructor; exact Hsub|]. rewrite Hst, Hs, <- app_assoc. split; [reflexivity|].
      apply lost_false_nlost in El. cbn [length]. split; lia.
Qed.

Lemma sim_errs_gen (P : ecode -> Prop) :
  (forall c st fl r x, In x (snd (fst (sp_step S c st fl r))) -> P x) ->
  forall recs c st fl x, In x (snd (fst (sp_sim S c st fl recs))) -> P x.
Proof.
  intros HP. induction recs as [|r rest IH]; intros c st fl x.
  - rewrite sp_sim_nil. intros [].
  - rewrite sp_sim_cons. specialize (HP c st fl r x). destruct (sp_step S c st fl r) as [[st1 e1] fl1].
    specialize (IH (sp_adv S c r) st1 fl1 x). destruct (sp_sim S (sp_adv S c r) st1 fl1 rest) as [[st2 e2] fl2].
    cbn [fst snd] in *. intros H. apply in_app_or in H. destruct H; auto.
Qed.

Lemma sim_rel_gen (Rl : sp_st S -> sp_st S -> Prop) :
  (forall st, Rl st st) -> (forall a b c, Rl a b -> Rl b c -> Rl a c) ->
  (forall c st fl r, Rl st (fst (fst (sp_step S c st fl r)))) ->
  forall recs c st fl, Rl st (fst (fst (sp_sim S c st fl recs))).
Proof.
  intros Hrefl Htrans Hstep. induction recs as [|r rest IH]; intros c st fl.
  - rewrite sp_sim_nil. apply Hrefl.
  - rewrite sp_sim_cons. specialize (Hstep c st fl r). destruct (sp_step S c st fl r) as [[st1 e1] fl1].
    specialize (IH (sp_adv S c r) st1 fl1). destruct (sp_sim S (sp_adv S c r) st1 fl1 rest) as [[st2 e2] fl2].
    exact (Htrans _ _ _ Hstep IH).
Qed.

Lemma sim_inv_gen (P : sp_st S -> Prop) :
  (forall c st fl r, P st -> P (fst (fst (sp_step S c st fl r)))) ->
  forall recs c st fl, P st -> P (fst (fst (sp_sim S c st fl recs))).
Proof. intros Hstep. apply (sim_rel_gen (fun a b => P a -> P b)); auto. Qed.

(* ---- recovery: Good is what the state must satisfy for the steps to be those of the fault-free rule (no rotation left
        pending without need); a step without failures establishes Post and relates the states by Q1; Q is what that
        makes of a list of records ---- *)
Section Recovery.
Variables Good Post : sp_st S -> Prop.
Variable Q1 : sp_ctx S -> sp_st S -> sp_rec S -> sp_st S -> Prop.
Variable Q : sp_ctx S -> sp_st S -> list (sp_rec S) -> sp_st S -> Prop.
Hypothesis post_good : forall st, Post st -> Good st.
Hypothesis q_nil : forall c st, Q c st [] st.
Hypothesis q_cons : forall c st r st1 rest st2, Q1 c st r st1 -> Q (sp_adv S c r) st1 rest st2 -> Q c st (r :: rest) st2.
Hypothesis step_recovered : forall c st fl r, all_false fl -> Good st ->
  let '(st', e, fl') := sp_step S c st fl r in e = [] /\ all_false fl' /\ Post st' /\ Q1 c st r st'.

Theorem recovery_spec_gen : forall recs c st fl, all_false fl -> Good st ->
  let '(st', e, fl') := sp_sim S c st fl recs in
  e = [] /\ all_false fl' /\ sp_stream S st' = sp_stream S st ++ concat (List.map (sp_bytes S) recs)
  /\ Q c st recs st' /\ (recs <> [] -> Post st').
Proof.
  induction recs as [|r rest IH]; intros c st fl Hf G.
  - rewrite sp_sim_nil. cbn [List.map concat]. rewrite app_nil_r. repeat split; try assumption; [apply q_nil | intros H; contradiction].
  - rewrite sp_sim_cons.
    pose proof (step_recovered c st fl r Hf G) as R. pose proof (sp_step_ok S c st fl r) as K.
    destruct (sp_step S c st fl r) as [[st1 e1] fl1]. destruct R as [-> [Hf1 [P1 Hq]]].
    destruct K as [used [_ [_ [_ Hs]]]]. cbn [lost existsb] in Hs.
    specialize (IH (sp_adv S c r) st1 fl1 Hf1 (post_good _ P1)).
    assert (E0 : rest = [] -> sp_sim S (sp_adv S c r) st1 fl1 rest = (st1, [], fl1)) by (intros ->; apply sp_sim_nil).
    destruct (sp_sim S (sp_adv S c r) st1 fl1 rest) as [[st2 e2] fl2].
    destruct IH as [-> [Hf2 [Hs2 [Hq2 Hp2]]]].
    split; [reflexivity|]. split; [exact Hf2|].
    split; [rewrite Hs2, Hs; cbn [List.map concat]; rewrite <- app_assoc; reflexivity|].
    split; [exact (q_cons _ _ _ _ _ _ Hq Hq2)|].
    intros _. destruct rest as [|r2 rest2]; [|apply Hp2; discriminate].
    specialize (E0 eq_refl). injection E0 as <- _. exact P1.
Qed.

End Recovery.
End Spec.

Lemma acct_all_false fl fl' k : acct fl fl' k -> all_false fl -> k = 0 /\ all_false fl'.
Proof.
  intros [u [U N]] H. subst fl. split.
  - rewrite <- N. apply ntrue_0_all_false. intros f Hf. apply H, in_or_app. left. exact Hf.
  - intros f Hf. apply H, in_or_app. right. exact Hf.
Qed.

Lemma stream_cur cl d : stream (SCur cl d) = concat cl ++ d.
Proof. reflexivity. Qed.
Lemma stream_old cl d : stream (SOld cl d) = concat cl ++ d.
Proof. unfold stream. cbn [st_closed st_cur]. rewrite concat_app. cbn [concat]. rewrite !app_nil_r. reflexivity. Qed.
Lemma stream_init created : stream (SInit created) = [].
Proof. destruct created; reflexivity. Qed.

Definition step_ok (st : sst) (fl : list bool) (b : bytes) (r : sst * list ecode * list bool) : Prop :=
  let '(st', e, fl') := r in
  exists used, fl = used ++ fl' /\ length e = ntrue used /\ nlost e <= 1
    /\ stream st' = stream st ++ (if lost e then [] else b).

Lemma s_active_ok m (old : bool) cl d b fl :
  step_ok (if old then SOld cl d else SCur cl d) fl b (s_active m old cl d b fl).
Proof.
  set (st := if old then SOld cl d else SCur cl d).
  assert (St : stream st = concat cl ++ d) by (destruct old; [apply stream_old | apply stream_cur]).
  assert (Same : forall d', stream (if old then SOld cl d' else SCur cl d') = concat cl ++ d')
    by (intros d'; destruct old; [apply stream_old | apply stream_cur]).
  assert (New : forall d', stream (SCur (cl ++ [d]) d') = (concat cl ++ d) ++ d').
  { intros d'. rewrite stream_cur, concat_app. cbn [concat]. rewrite app_nil_r. reflexivity. }
  unfold s_active. destruct (m <? N.of_nat (length d))%N.
  - pose proof (pop_used fl) as C1. destruct (pop fl) as [f1 fl1]. cbn [fst snd] in C1. destruct f1.
    + (* the rename fails *)
      pose proof (write_step_ok stream st fl b fl1 [ELogFile] _ d _ C1 eq_refl St Same) as K.
      destruct (s_write d b fl1) as [[d' e] fl2]. exact K.
    + pose proof (acct_trans _ _ _ _ _ C1 (pop_used fl1)) as C2. destruct (pop fl1) as [f2 fl2]. cbn [fst snd] in C2. destruct f2.
      * (* the creation of the new current file fails *)
        pose proof (write_step_ok stream st fl b fl2 [ELogFile] _ d _ C2 eq_refl St (stream_old cl)) as K.
        destruct (s_write d b fl2) as [[d' e] fl3]. exact K.
      * rewrite <- (app_nil_r (concat cl ++ d)) in St.
        pose proof (write_step_ok stream st fl b fl2 [] _ [] _ C2 eq_refl St New) as K.
        destruct (s_write [] b fl2) as [[d' e] fl3]. exact K.
  - pose proof (write_step_ok stream st fl b fl [] _ d _ (acct_refl fl) eq_refl St Same) as K.
    destruct (s_write d b fl) as [[d' e] fl1]. exact K.
Qed.

Lemma step_ok_prefix st st0 fl pre fl0 b r : fl = pre ++ fl0 -> ntrue pre = 0 -> stream st0 = stream st ->
  step_ok st0 fl0 b r -> step_ok st fl b r.
Proof. intros Hfl Hn. apply stream_step_prefix. exists pre. split; assumption. Qed.

Lemma s_init_cases app m created b fl :
  (exists cr fl', acct fl fl' 1 /\ s_init app m created b fl = (SInit cr, [EWrite], fl'))
  \/ (exists fl', acct fl fl' 0 /\ s_init app m created b fl = s_active m false [] [] b fl').
Proof.
  unfold s_init.
  pose proof (pop_used fl) as C1. destruct (pop fl) as [f1 fl1]. cbn [fst snd] in C1.
  destruct f1; [left; exists created, fl1; split; [exact C1 | reflexivity]|].
  pose proof (acct_trans _ _ _ _ _ C1 (proj2 (pop_if_used app fl1))) as C2.
  destruct (if app then (false, fl1) else pop fl1) as [f2 fl2]. cbn [fst snd] in C2.
  destruct f2; [left; exists created, fl2; split; [exact C2 | reflexivity]|].
  pose proof (acct_trans _ _ _ _ _ C2 (pop_used fl2)) as C3. destruct (pop fl2) as [f3 fl3]. cbn [fst snd] in C3.
  destruct f3; [left; exists created, fl3; split; [exact C3 | reflexivity]|].
  pose proof (acct_trans _ _ _ _ _ C3 (proj1 (pop_if_used app fl3))) as C4.
  destruct (if app then pop fl3 else (false, fl3)) as [f4 fl4]. cbn [fst snd] in C4.
  destruct f4; [left; exists true, fl4 | right; exists fl4]; (split; [exact C4 | reflexivity]).
Qed.

Lemma s_init_ok app m created b fl : step_ok (SInit created) fl b (s_init app m created b fl).
Proof.
  destruct (s_init_cases app m created b fl) as [[cr [fl' [[u [U Nu]] ->]]] | [fl' [A ->]]].
  - (* a failing step of the initialisation *)
    exists u. rewrite !stream_init. cbn. auto.
  - apply (stream_step_prefix stream (SInit created) (SCur [] []) fl fl' b _ A); [rewrite stream_init; reflexivity|].
    apply (s_active_ok m false [] [] b fl').
Qed.

Theorem sstep_ok app m st fl b : step_ok st fl b (sstep app m st fl b).
Proof.
  destruct st as [created|cl d|cl d]; cbn [sstep].
  - apply s_init_ok.
  - apply (s_active_ok m false cl d b fl).
  - apply (s_active_ok m true cl d b fl).
Qed.

(* ------------------------------------------------------------------ whole lists of records *)
Fixpoint trace (app : bool) (m : N) (st : sst) (fl : list bool) (recs : list bytes) : list entry :=
  match recs with
  | [] => []
  | b :: rest =>
    let '(st1, e1, fl1) := sstep app m st fl b in
    {| t_rec := b; t_errs := e1; t_used := firstn (length fl - length fl1) fl |} :: trace app m st1 fl1 rest
  end.

Definition rot_spec (app : bool) (m : N) : spec :=
  {| sp_adv := fun (c : unit) (_ : bytes) => c; sp_bytes := fun b => b; sp_stream := stream;
     sp_step := fun _ => sstep app m; sp_sim := fun _ => simr_st app m; sp_trace := fun _ => trace app m;
     sp_sim_nil := fun _ _ _ => eq_refl; sp_sim_cons := fun _ _ _ _ _ => eq_refl;
     sp_trace_nil := fun _ _ _ => eq_refl; sp_trace_cons := fun _ _ _ _ _ => eq_refl;
     sp_step_ok := fun _ => sstep_ok app m |}.

(* the run of the specification, described record by record *)
Theorem simr_trace app m : forall recs st fl,
  let '(st', e, fl') := simr_st app m st fl recs in
  let t := trace app m st fl recs in
  List.map t_rec t = recs
  /\ fl = concat (List.map t_used t) ++ fl'
  /\ e = concat (List.map t_errs t)
  /\ stream st' = stream st ++ concat (List.map t_kept t)
  /\ Forall (fun x => length (t_errs x) = ntrue (t_used x) /\ nlost (t_errs x) <= 1) t.
Proof.
  intros recs st fl. pose proof (sim_trace_gen (rot_spec app m) recs tt st fl) as T.
  cbn [rot_spec sp_sim sp_trace sp_bytes sp_stream] in T. rewrite map_id in T. exact T.
Qed.

Lemma simr_st_app app m : forall recs1 recs2 st fl,
  simr_st app m st fl (recs1 ++ recs2)
  = let '(st1, e1, fl1) := simr_st app m st fl recs1 in
    let '(st2, e2, fl2) := simr_st app m st1 fl1 recs2 in (st2, e1 ++ e2, fl2).
Proof. intros recs1 recs2 st fl. exact (sim_app_gen (rot_spec app m) recs1 recs2 tt st fl). Qed.

(* (2) Only records during whose own log call a failing call was consumed can be missing; the stream consists of the
   other records, in order, each once.  More precisely, with t the list of log calls (record, reports, oracle
   entries consumed):  the consumed entries partition the consumed part of the oracle; the reports are those of
   the calls; the stream is the concatenation of the records that were not lost; a record is lost only if its
   call reported EWrite, and a call reports exactly as many errors as it consumed failing entries - so a record
   whose call consumed only `false` entries is in the stream and nothing is reported for it. *)
Theorem lost_only_around_failures app m fl recs :
  let '(st', e, fl') := simr_st app m (SInit false) fl recs in
  let t := trace app m (SInit false) fl recs in
  List.map t_rec t = recs
  /\ fl = concat (List.map t_used t) ++ fl'
  /\ e = concat (List.map t_errs t)
  /\ stream st' = concat (List.map t_kept t)
  /\ (forall x, In x t -> length (t_errs x) = ntrue (t_used x))
  /\ (forall x, In x t -> (forall f, In f (t_used x) -> f = false) -> t_errs x = [] /\ t_kept x = t_rec x)
  /\ (forall x, In x t -> t_kept x <> t_rec x -> In true (t_used x) /\ In EWrite (t_errs x)).
Proof.
  pose proof (lost_only_around_failures_gen (rot_spec app m) tt (SInit false) fl recs eq_refl) as T.
  cbn [rot_spec sp_sim sp_trace sp_bytes sp_stream] in T. rewrite map_id in T. exact T.
Qed.

(* the same in the form of FaultFacts.lost_only_failed: the stream is the concatenation of a subsequence of the
   records (no duplication, no reordering), and (3) each missing record is one reported EWrite: the number of
   missing records is at most the number of reported errors *)
Theorem loss_is_reported app m : forall recs st fl,
  let '(st', e, _) := simr_st app m st fl recs in
  exists kept, Subseq kept recs /\ stream st' = stream st ++ concat kept
    /\ length recs = length kept + nlost e /\ nlost e <= length e.
Proof.
  intros recs st fl. pose proof (loss_is_reported_gen (rot_spec app m) recs tt st fl) as T.
  cbn [rot_spec sp_sim sp_bytes sp_stream] in T. rewrite map_id in T. exact T.
Qed.

(* ------------------------------------------------------------------ (4) recovery *)
(* the view of the fault-free development (NumRun.aview): closed files and the content of the writer's file *)
Definition aview_of (st : sst) : aview :=
  match st with SInit _ => None | SCur cl d => Some (cl, d) | SOld cl d => Some (cl, d) end.
(* in the state SOld a rotation is pending *)
Definition pending_ok (m : N) (st : sst) : Prop :=
  match st with SOld _ d => (m <? N.of_nat (length d))%N = true | _ => True end.

Lemma s_active_pending m (old : bool) cl d b fl : pending_ok m (if old then SOld cl d else SCur cl d) ->
  pending_ok m (fst (fst (s_active m old cl d b fl))).
Proof.
  intros P. unfold s_active.
  destruct (m <? N.of_nat (length d))%N eqn:Em.
  - destruct (pop fl) as [f1 fl1]. destruct f1.
    + pose proof (s_write_pending d b fl1) as L. destruct (s_write d b fl1) as [[d' e] fl2]. cbn [fst].
      destruct old; cbn [pending_ok]; [lia | exact I].
    + destruct (pop fl1) as [f2 fl2]. destruct f2.
      * pose proof (s_write_pending d b fl2) as L. destruct (s_write d b fl2) as [[d' e] fl3]. cbn [fst pending_ok]. lia.
      * destruct (s_write [] b fl2) as [[d' e] fl3]. exact I.
  - pose proof (s_write_pending d b fl) as L. destruct (s_write d b fl) as [[d' e] fl1]. cbn [fst].
    destruct old; cbn [pending_ok] in *; [congruence | exact I].
Qed.

Lemma sstep_pending app m st fl b : pending_ok m st -> pending_ok m (fst (fst (sstep app m st fl b))).
Proof.
  intros P. destruct st as [created|cl d|cl d]; cbn [sstep].
  - destruct (s_init_cases app m created b fl) as [[cr [fl' [_ ->]]] | [fl' [_ ->]]]; [exact I|].
    apply (s_active_pending m false). exact I.
  - apply (s_active_pending m false). exact I.
  - apply (s_active_pending m true). exact P.
Qed.

Lemma simr_st_pending app m : forall recs st fl, pending_ok m st -> pending_ok m (fst (fst (simr_st app m st fl recs))).
Proof.
  intros recs st fl. exact (sim_inv_gen (rot_spec app m) (pending_ok m) (fun _ => sstep_pending app m) recs tt st fl).
Qed.

Lemma s_active_recovered m (old : bool) cl d b fl : all_false fl -> (old = true -> (m <? N.of_nat (length d))%N = true) ->
  let '(st', e, fl') := s_active m old cl d b fl in
  e = [] /\ all_false fl' /\ (exists cl' d', st' = SCur cl' d')
  /\ aview_of st' = a_step (Some (cl, d)) (OWrite b) (m <? N.of_nat (length d))%N.
Proof.
  intros H0 Ho. unfold s_active. cbn [a_step].
  destruct (m <? N.of_nat (length d))%N eqn:Em.
  - destruct (pop_all_false fl H0) as [E1 E2]. destruct (pop fl) as [f1 fl1]. cbn [fst snd] in *. subst f1.
    destruct (pop_all_false fl1 E2) as [E3 E4]. destruct (pop fl1) as [f2 fl2]. cbn [fst snd] in *. subst f2.
    pose proof (s_write_all_false [] b fl2 E4) as K. destruct (s_write [] b fl2) as [[d' e] fl3]. destruct K as [-> [-> K3]].
    split; [reflexivity|]. split; [exact K3|]. split; [eauto | reflexivity].
  - pose proof (s_write_all_false d b fl H0) as K. destruct (s_write d b fl) as [[d' e] fl1]. destruct K as [-> [-> K3]].
    destruct old; [specialize (Ho eq_refl); congruence|].
    split; [reflexivity|]. split; [exact K3|]. split; [eauto | reflexivity].
Qed.

(* one record when no more failures come: nothing is reported, the record is appended, a pending rotation is
   carried out, and the state is that of the fault-free size rule *)
Lemma sstep_recovered app m st fl b : all_false fl -> pending_ok m st ->
  let '(st', e, fl') := sstep app m st fl b in
  e = [] /\ all_false fl' /\ (exists cl d, st' = SCur cl d)
  /\ aview_of st' = a_step (aview_of st) (OWrite b) (m <? N.of_nat (length (cur_of (aview_of st))))%N.
Proof.
  intros Hf P. destruct st as [created|cl d|cl d]; cbn [sstep aview_of cur_of].
  - destruct (s_init_cases app m created b fl) as [[cr [fl' [A _]]] | [fl' [A ->]]];
      destruct (acct_all_false _ _ _ A Hf) as [E0 Hf']; [discriminate E0|].
    apply (s_active_recovered m false [] [] b fl' Hf'). discriminate.
  - apply (s_active_recovered m false cl d b fl Hf). discriminate.
  - apply (s_active_recovered m true cl d b fl Hf). intros _. exact P.
Qed.

Lemma s_run_write_cons m a b rest :
  s_run m a (OWrite b :: rest) = s_run m (a_step a (OWrite b) (m <? N.of_nat (length (cur_of a)))%N) rest.
Proof. reflexivity. Qed.

Lemma s_run_view_cons m (a a1 a2 : aview) b rest :
  a1 = a_step a (OWrite b) (m <? N.of_nat (length (cur_of a)))%N -> a2 = s_run m a1 (List.map OWrite rest) ->
  a2 = s_run m a (List.map OWrite (b :: rest)).
Proof. intros -> ->. reflexivity. Qed.

Lemma on_cur_pending m st : (exists cl d, st = SCur cl d) -> pending_ok m st.
Proof. intros [cl [d ->]]. exact I. Qed.

(* (4) Once no more failures come (the rest of the oracle is empty or all `false`), nothing more is reported, every
   further record is in the stream, and rotation works again: the view develops exactly by the fault-free size rule
   NumRun.s_run (rotate before a record iff the file holds more than m bytes), starting with the rotation that is
   still pending if the last failure left the writer on a renamed file; after the first such record rCURRENT
   exists again. *)
Theorem recovery_spec app m : forall recs st fl, all_false fl -> pending_ok m st ->
  let '(st', e, fl') := simr_st app m st fl recs in
  e = [] /\ all_false fl' /\ stream st' = stream st ++ concat recs
  /\ aview_of st' = s_run m (aview_of st) (List.map OWrite recs)
  /\ (recs <> [] -> exists cl d, st' = SCur cl d).
Proof.
  intros recs st fl Hf P.
  pose proof (recovery_spec_gen (rot_spec app m) (pending_ok m) (fun st => exists cl d, st = SCur cl d)
                (fun _ st b st' => aview_of st' = a_step (aview_of st) (OWrite b) (m <? N.of_nat (length (cur_of (aview_of st))))%N)
                (fun _ st recs st' => aview_of st' = s_run m (aview_of st) (List.map OWrite recs))) as R.
  cbn [rot_spec sp_sim sp_step sp_adv sp_bytes sp_stream sp_st sp_ctx sp_rec] in R.
  specialize (R (on_cur_pending m) (fun _ _ => eq_refl)
                (fun _ st b st1 rest st2 => s_run_view_cons m _ _ _ b rest) (fun _ => sstep_recovered app m) recs tt st fl Hf P).
  rewrite map_id in R. exact R.
Qed.

Theorem recovery_rotation app m fl recs1 recs2 :
  let '(st1, e1, fl1) := simr_st app m (SInit false) fl recs1 in
  all_false fl1 ->
  let '(st2, e2, fl2) := simr_st app m (SInit false) fl (recs1 ++ recs2) in
  e2 = e1 /\ stream st2 = stream st1 ++ concat recs2
  /\ aview_of st2 = s_run m (aview_of st1) (List.map OWrite recs2)
  /\ (recs2 <> [] -> exists cl d, st2 = SCur cl d).
Proof.
  rewrite simr_st_app.
  pose proof (simr_st_pending app m recs1 (SInit false) fl I) as P.
  destruct (simr_st app m (SInit false) fl recs1) as [[st1 e1] fl1]. cbn [fst] in P. intros Hf.
  pose proof (recovery_spec app m recs2 st1 fl1 Hf P) as R.
  destruct (simr_st app m st1 fl1 recs2) as [[st2 e2] fl2]. destruct R as [-> [_ [Hs [Hv Hc]]]].
  rewrite app_nil_r. auto.
Qed.

(* without failures: the fault-free size rule from the start *)
Corollary no_faults_rotation app m recs :
  let '(st, e, _) := simr_st app m (SInit false) [] recs in
  e = [] /\ stream st = concat recs /\ aview_of st = s_run m None (List.map OWrite recs).
Proof.
  assert (Hf : all_false []) by (intros f []).
  pose proof (recovery_spec app m recs (SInit false) [] Hf I) as R.
  destruct (simr_st app m (SInit false) [] recs) as [[st e] fl']. destruct R as [-> [_ [Hs [Hv _]]]]. auto.
Qed.

Print Assumptions lost_only_around_failures.
Print Assumptions loss_is_reported.
Print Assumptions recovery_rotation.
