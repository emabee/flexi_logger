(* Numbers naming with a cleanup strategy, killed process and restart (C11): examples.  All kill points of small
   histories are computed (vm_compute); the hypotheses of numbers_cleanup_kill_keeps_acked and
   numbers_cleanup_kill_restart are met by concrete histories; findings. *)
Require Import FL.Base.Bytes FL.Base.BytesFacts FL.Base.PathName FL.Fs.Fs FL.Fs.FsFacts FL.Time.TsFormat
  FL.Names.FileSpec FL.Flw.Model FL.Flw.ModelFacts FL.Flw.NumFs FL.Flw.NumInv FL.Flw.Run
  FL.Flw.NumRun FL.Flw.NumListing FL.Flw.NumTheorems FL.Flw.NumRestart FL.Flw.KillFacts FL.Flw.NumKill
  FL.Flw.NumKillRestart FL.Flw.CleanupFacts FL.Flw.NumCleanupNames FL.Flw.NumCleanupStep FL.Flw.NumCleanupRun FL.Flw.NumCleanup
  FL.Oracles.ReaderOrder FL.Oracles.O_Stream FL.Flw.NumCleanupKillDir FL.Flw.NumCleanupKillStep FL.Flw.NumCleanupKill
  FL.Flw.NumCleanupKillRestart.
Import String.StringSyntax.
Open Scope nat_scope.
Open Scope string_scope.

(* base name "a", suffix "log", rotation when the current file holds more than 3 bytes, direct mode, no append *)
Definition kc (k : cleanup) : config := NumCleanup.ex_cfg k log_sfx.
Definition rec (i : nat) : op := OWrite (bs "abc" ++ [N.of_nat (48 + i)]).
(* records of 4 bytes: every write but the first rotates (and runs the cleanup) first *)
Definition kx1 : list op := [rec 0; rec 1; rec 2].
Definition kx2 : list op := [rec 3; rec 4; OSnap].
Definition kx3 : list op := [rec 5; rec 6].
Definition khist (k : cleanup) (kp : nat) : list op := OStart (kc k) :: kx1 ++ [OSetKill kp] ++ kx2 ++ [OCrash].
Definition karmed (k : cleanup) (kp : nat) : sys := fst (run (sys0 0 0) (OStart (kc k) :: kx1 ++ [OSetKill kp])).
Definition kdead (k : cleanup) (kp : nat) : sys := fst (run (sys0 0 0) (khist k kp)).
Definition kacked (k : cleanup) (kp : nat) : bytes := written kx1 ++ acked (karmed k kp) kx2.

Lemma kc_numkcfg k : numkcfg (kc k) (CSize 3) k.
Proof. repeat split. Qed.
Lemma kc_sfx k : sfx_ok (c_spec (kc k)).
Proof. vm_compute. reflexivity. Qed.
Lemma kx1_basic : Forall basic_op kx1.
Proof. repeat constructor. Qed.
Lemma kx2_basic : Forall basic_op kx2.
Proof. repeat constructor. Qed.
Lemma kx3_basic : Forall basic_op kx3.
Proof. repeat constructor. Qed.

(* ------------------------------------------------------------------ the directories a kill leaves: KLogGz 1 1 *)
(* before the kill counter is armed: r00000.gz, r00001, rCURRENT = abc2.  The write of abc3 rotates: rename (effect 0),
   create rCURRENT (1), cleanup: create r00001.log.gz (2), copy (3), finish (4), remove r00001.log (5), remove r00000.log.gz (6);
   then the write itself (7). *)
Example kill_points_loggz :
  (* 1: killed at the creation of rCURRENT - no current file *)
  snap_of (kdead (KLogGz 1 1) 1)
  = [ (bs "a_r00000.log.gz", 1%N, bs "abc0"); (bs "a_r00001.log", 0%N, bs "abc1"); (bs "a_r00002.log", 0%N, bs "abc2") ]
  (* 3, 4: killed at the copy / at finish - an UNFINISHED, empty archive (kind 2) next to its intact original *)
  /\ snap_of (kdead (KLogGz 1 1) 3)
  = [ (bs "a_r00000.log.gz", 1%N, bs "abc0"); (bs "a_r00001.log", 0%N, bs "abc1"); (bs "a_r00001.log.gz", 2%N, []);
      (bs "a_r00002.log", 0%N, bs "abc2"); (bs "a_rCURRENT.log", 0%N, []) ]
  /\ snap_of (kdead (KLogGz 1 1) 4) = snap_of (kdead (KLogGz 1 1) 3)
  (* 5: killed at the removal of the original - a COMPLETE archive next to its original, same content *)
  /\ snap_of (kdead (KLogGz 1 1) 5)
  = [ (bs "a_r00000.log.gz", 1%N, bs "abc0"); (bs "a_r00001.log", 0%N, bs "abc1"); (bs "a_r00001.log.gz", 1%N, bs "abc1");
      (bs "a_r00002.log", 0%N, bs "abc2"); (bs "a_rCURRENT.log", 0%N, []) ]
  (* 6: killed at the removal of the oldest archive - one archive more than the limit *)
  /\ snap_of (kdead (KLogGz 1 1) 6)
  = [ (bs "a_r00000.log.gz", 1%N, bs "abc0"); (bs "a_r00001.log.gz", 1%N, bs "abc1");
      (bs "a_r00002.log", 0%N, bs "abc2"); (bs "a_rCURRENT.log", 0%N, []) ]
  (* 7: killed at the write: the cleanup is complete, the record is not acknowledged *)
  /\ snap_of (kdead (KLogGz 1 1) 7)
  = [ (bs "a_r00001.log.gz", 1%N, bs "abc1"); (bs "a_r00002.log", 0%N, bs "abc2"); (bs "a_rCURRENT.log", 0%N, []) ]
  /\ kacked (KLogGz 1 1) 7 = bs "abc0abc1abc2" /\ kacked (KLogGz 1 1) 8 = bs "abc0abc1abc2abc3".
Proof. vm_compute. repeat split; reflexivity. Qed.

(* deletion only (KLog 1): killed at the removal of the oldest file - one file more than the limit *)
Example kill_points_log :
  snap_of (kdead (KLog 1) 2)
  = [ (bs "a_r00001.log", 0%N, bs "abc1"); (bs "a_r00002.log", 0%N, bs "abc2"); (bs "a_rCURRENT.log", 0%N, []) ]
  /\ snap_of (kdead (KLog 1) 3) = [ (bs "a_r00002.log", 0%N, bs "abc2"); (bs "a_rCURRENT.log", 0%N, []) ].
Proof. vm_compute. split; reflexivity. Qed.

(* ------------------------------------------------------------------ the reader *)
(* FINDING (reader / oracle): family_in_order (Oracles/ReaderOrder.v) keeps every entry of kind 0 or 1 of the family.
   It skips the unfinished archive (kind 2) - but at kill point 5 it reads r00001 TWICE (original and complete archive):
   the stream has a duplicated record and oracle_tail fails.  A reader of a directory that a killed process left must
   drop an archive whose original is present. *)
Definition shadowed (l : list entry) (e : entry) : bool :=
  let '(nm, kd, _) := e in
  (kd =? 1)%N && match strip_suffix (dot :: gz_sfx) nm with
                 | Some orig => existsb (fun e' : entry => beq (fst (fst e')) orig && (snd (fst e') =? 0)%N) l
                 | None => false
                 end.
Definition reader_entries (l : list entry) : list entry := filter (fun e => negb (shadowed l e)) l.
Definition kill_stream (c : config) (l : list entry) : bytes := stream_of c (reader_entries l).

Example oracle_reader_duplicates :
  stream_of (kc (KLogGz 1 1)) (snap_of (kdead (KLogGz 1 1) 5)) = bs "abc0abc1abc1abc2"
  /\ oracle_tail (kc (KLogGz 1 1)) (kacked (KLogGz 1 1) 5) (snap_of (kdead (KLogGz 1 1) 5)) = false
  /\ kill_stream (kc (KLogGz 1 1)) (snap_of (kdead (KLogGz 1 1) 5)) = bs "abc0abc1abc2"
  (* the unfinished archive is skipped by family_in_order itself *)
  /\ stream_of (kc (KLogGz 1 1)) (snap_of (kdead (KLogGz 1 1) 3)) = bs "abc0abc1abc2".
Proof. vm_compute. repeat split; reflexivity. Qed.

(* ALL kill points of the history, the three kinds of strategy (and limits 0): what the reader obtains is a tail of the
   acknowledged records, it contains the last n + m closed files and the current file (here: at least 4 * (n + m) bytes
   of closed files whenever that many records were acknowledged before the current file), and no entry is broken
   except next to its original *)
Definition tail_ok (k : cleanup) (nm : nat) (kp : nat) : bool :=
  let l := snap_of (kdead k kp) in
  let s := kill_stream (kc k) l in
  is_suffix s (kacked k kp) && Nat.leb (Nat.min (length (kacked k kp)) (4 * nm)) (length s).

Example all_kill_points_tail :
  forallb (tail_ok (KLogGz 1 1) 2) (seq 0 26) = true
  /\ forallb (tail_ok (KLog 1) 1) (seq 0 14) = true
  /\ forallb (tail_ok (KLog 2) 2) (seq 0 14) = true
  /\ forallb (tail_ok (KGz 1) 1) (seq 0 26) = true
  /\ forallb (tail_ok (KGz 2) 2) (seq 0 26) = true
  /\ forallb (tail_ok (KLogGz 0 0) 0) (seq 0 14) = true
  /\ forallb (tail_ok (KLogGz 2 1) 3) (seq 0 26) = true.
Proof. vm_compute. repeat split; reflexivity. Qed.

(* numbers_cleanup_kill_keeps_acked on this history *)
Example kill_keeps_acked_instance :
  exists closed ocur lo,
    kill_view (kc (KLogGz 1 1)) (wfs (s_w (kdead (KLogGz 1 1) 5))) closed ocur lo
    /\ concat closed ++ ocb ocur = bs "abc0abc1abc2"
    /\ lo <= length closed - 2
    /\ bs "abc0abc1abc2" = concat (firstn lo closed) ++ kv_stream closed ocur lo.
Proof.
  destruct (numbers_cleanup_kill_keeps_acked (kc (KLogGz 1 1)) (CSize 3) (KLogGz 1 1) 1 1 0 0 kx1 5 kx2
              (kc_numkcfg _) eq_refl eq_refl (kc_sfx _) kx1_basic kx2_basic) as (cl & oc & lo & V & F & Hlo & T).
  assert (E : written kx1 ++ acked (fst (run (sys0 0 0) (OStart (kc (KLogGz 1 1)) :: kx1 ++ [OSetKill 5]))) kx2 = bs "abc0abc1abc2")
    by (vm_compute; reflexivity).
  rewrite E in F, T. exists cl, oc, lo. auto.
Qed.

(* ------------------------------------------------------------------ the restart *)
Definition krestart (k : cleanup) (kp : nat) (ops3 : list op) := run (kdead k kp) (OStart (kc k) :: ops3 ++ [OStop]).
Definition all_ok (l : list obs) : bool :=
  forallb (fun ob => match ob with ObsRes cd _ => (cd =? 0)%N | ObsList cd _ => (cd =? 0)%N | ObsSnap _ _ _ => true end) l.

(* the leftovers of kill points 3 and 5 (archive next to its original) and 6 (too many archives) are repaired by the
   first write: the new writer closes the empty rCURRENT as r00003, then its cleanup removes the redundant archive,
   compresses what is beyond the plain-file limit and removes what is beyond both limits *)
Example restart_repairs :
  let final kp := snap_of (fst (krestart (KLogGz 1 1) kp kx3)) in
  final 3 = [ (bs "a_r00003.log.gz", 1%N, []); (bs "a_r00004.log", 0%N, bs "abc5"); (bs "a_rCURRENT.log", 0%N, bs "abc6") ]
  /\ final 5 = final 3 /\ final 6 = final 3
  /\ all_ok (snd (krestart (KLogGz 1 1) 3 kx3)) = true /\ all_ok (snd (krestart (KLogGz 1 1) 5 kx3)) = true.
Proof. vm_compute. repeat split; reflexivity. Qed.

(* one record only: the state right after the repair.  The interrupted compression of r00001 is not resumed - the file is
   beyond both limits now and is removed together with its archive; r00002 is compressed.  Second example (KLogGz 2 1, killed
   at the removal of the oldest archive: two archives where one is allowed): both old archives go, r00002 is compressed *)
Example restart_repairs_one_record :
  snap_of (fst (krestart (KLogGz 1 1) 5 [rec 5]))
  = [ (bs "a_r00002.log.gz", 1%N, bs "abc2"); (bs "a_r00003.log", 0%N, []); (bs "a_rCURRENT.log", 0%N, bs "abc5") ]
  /\ snap_of (fst (krestart (KLogGz 2 1) 13 [rec 5]))
  = [ (bs "a_r00002.log.gz", 1%N, bs "abc2"); (bs "a_r00003.log", 0%N, bs "abc3"); (bs "a_r00004.log", 0%N, []);
      (bs "a_rCURRENT.log", 0%N, bs "abc5") ].
Proof. vm_compute. split; reflexivity. Qed.

(* SURPRISE: the repair is part of the initialisation, and the writer initialises with its first write.  A writer that is
   started and dropped without a record leaves the unfinished archive where it is. *)
Example restart_without_record_repairs_nothing :
  snap_of (fst (krestart (KLogGz 1 1) 3 [OFlush; OTrigger])) = snap_of (kdead (KLogGz 1 1) 3)
  /\ all_ok (snd (krestart (KLogGz 1 1) 3 [OFlush; OTrigger])) = true.
Proof. vm_compute. split; reflexivity. Qed.

(* ALL kill points: the restart succeeds in every operation; afterwards the plain reader of the oracles suffices (no
   duplicates, no unfinished archive), the stream is a tail of acknowledged ++ own records, the limits hold *)
Definition restart_ok (k : cleanup) (kp : nat) : bool :=
  let r := krestart k kp kx3 in
  let l := snap_of (fst r) in
  all_ok (snd r) && oracle_tail (kc k) (kacked k kp ++ written kx3) l && oracle_limits (kc k) l
  && oracle_current_plain (kc k) l.

Example all_kill_points_restart :
  forallb (restart_ok (KLogGz 1 1)) (seq 0 26) = true
  /\ forallb (restart_ok (KLog 1)) (seq 0 14) = true
  /\ forallb (restart_ok (KGz 2)) (seq 0 26) = true
  /\ forallb (restart_ok (KLogGz 0 0)) (seq 0 14) = true
  /\ forallb (restart_ok (KLogGz 2 1)) (seq 0 26) = true.
Proof. vm_compute. repeat split; reflexivity. Qed.

(* numbers_cleanup_kill_restart on this history (kill point 5: complete archive next to its original) *)
Example kill_restart_instance :
  let r2 := krestart (KLogGz 1 1) 5 kx3 in
  Forall obs_ok (snd r2)
  /\ exists pre closed ocur lo,
       kill_view (kc (KLogGz 1 1)) (wfs (s_w (fst r2))) closed ocur lo
       /\ bs "abc0abc1abc2abc5abc6" = pre ++ concat closed ++ ocb ocur
       /\ bs "abc0abc1abc2abc5abc6" = (pre ++ concat (firstn lo closed)) ++ kv_stream closed ocur lo
       /\ lo <= length closed - 2 /\ pre = []
       /\ exists cu, ocur = Some cu /\ kreader_view (kc (KLogGz 1 1)) (wfs (s_w (fst r2))) closed cu lo (length closed - 1).
Proof.
  assert (HL : (N.of_nat (S (length kx1 + length kx2)) <= u32_max)%N) by (vm_compute; discriminate).
  destruct (numbers_cleanup_kill_restart (kc (KLogGz 1 1)) (CSize 3) (KLogGz 1 1) 1 1 0 0 kx1 5 kx2 kx3
              (kc_numkcfg _) eq_refl eq_refl (kc_sfx _) kx1_basic kx2_basic kx3_basic HL) as (Kk & pre & cl & oc & lo & V & E & T & Hlo & Hp & Hr).
  assert (Ew : written kx1 ++ acked (fst (run (sys0 0 0) (OStart (kc (KLogGz 1 1)) :: kx1 ++ [OSetKill 5]))) kx2 ++ written kx3
               = bs "abc0abc1abc2abc5abc6") by (vm_compute; reflexivity).
  rewrite Ew in E, T. split; [exact Kk|]. exists pre, cl, oc, lo. split; [exact V|]. split; [exact E|]. split; [exact T|].
  split; [exact Hlo|]. split; [destruct Hp as [Hp|Hp]; [exact Hp | discriminate Hp]|].
  destruct (Hr eq_refl) as (cu & Eo & _ & Kv). exists cu. split; [exact Eo | exact Kv].
Qed.

(* the same with an appending configuration for both writers: the new writer continues the current file it finds *)
Definition kca (k : cleanup) : config :=
  {| c_spec := c_spec (kc k); c_append := true; c_cap := None; c_rot := Some (CSize 3, NNumbers, k); c_utc := false;
     c_symlink := false; c_bg := false; c_async := false; c_start := None |}.
Example kill_restart_append :
  let xk := fst (run (sys0 0 0) (OStart (kca (KLogGz 1 1)) :: kx1 ++ [OSetKill 9] ++ kx2 ++ [OCrash])) in
  let r2 := run xk (OStart (kca (KLogGz 1 1)) :: kx3 ++ [OStop]) in
  snap_of xk = [ (bs "a_r00001.log.gz", 1%N, bs "abc1"); (bs "a_r00002.log", 0%N, bs "abc2"); (bs "a_r00003.log", 0%N, bs "abc3") ]
  /\ snap_of (fst r2) = [ (bs "a_r00003.log.gz", 1%N, bs "abc3"); (bs "a_r00004.log", 0%N, bs "abc5"); (bs "a_rCURRENT.log", 0%N, bs "abc6") ]
  /\ all_ok (snd r2) = true.
Proof. vm_compute. repeat split; reflexivity. Qed.
