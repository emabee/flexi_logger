(* NumbersDirect naming: every history of writes, flushes, triggers and clock ticks refines the abstract
   reader's view (closed files, current content).  The abstract side (aview, a_step, a_run, s_run, flat) is the one
   of Numbers naming (NumRun.v): a rotation closes the current file and starts an empty one; here the closed
   file keeps its name and the new one gets the next number. *)
Require Import FL.Base.Bytes FL.Fs.Fs FL.Names.FileSpec FL.Flw.Model FL.Flw.ModelFacts FL.Flw.NumFs FL.Flw.NumInv
  FL.Flw.Run FL.Flw.RunFacts FL.Flw.NumRun FL.Oracles.O_Flw FL.Flw.NumTheorems FL.Flw.NumDInv.
Open Scope nat_scope.

Definition RelD (c : config) (crit : criterion) (x : sys) (a : aview) : Prop :=
  s_tl x = [] /\ wacts (s_w x) = 0 /\
  match a with
  | None => s_flw x = Some (new_flw c) /\ quiet (s_w x) /\ names (wfs (s_w x)) = [] /\ inodes (wfs (s_w x)) = []
  | Some (closed, cur) =>
    exists wr roll, s_flw x = Some (st_of_d c (length closed) roll wr) /\ NumDInv c (s_w x) wr closed
      /\ cur_view (s_w x) wr = cur /\ roll_size_ok roll (length cur)
      /\ (forall m, crit = CSize m -> exists k, roll = RSize m k)
  end.

Lemma step_sync_rel_d c crit x a o : numdcfg c crit -> RelD c crit x a -> step x o = sync_step x o.
Proof. exact (lrel_sync _ _ _ _ numd_layout c crit x a o). Qed.

(* one basic operation *)
Lemma step_rel_d c crit x a o :
  numdcfg c crit -> RelD c crit x a -> basic_op o ->
  let '(x', ob) := step x o in
  RelD c crit x' (a_step a o (rot_of ob))
  /\ (forall b m, (o = OWrite b \/ o = OPlain b) -> crit = CSize m ->
        ob = ObsRes 0 (m <? N.of_nat (length (match a with Some (_, cu) => cu | None => [] end)))%N).
Proof.
  intros Hcfg R Hb. pose proof (lstep_rel _ _ _ _ numd_layout c crit x a o Hcfg R Hb) as S.
  destruct (step x o) as [x' ob]. split; apply S.
Qed.

Lemma run_rel_d c crit : numdcfg c crit -> forall ops x a, RelD c crit x a -> Forall basic_op ops ->
  RelD c crit (fst (run x ops)) (a_run a ops (snd (run x ops))).
Proof. exact (lrun_rel _ _ _ _ numd_layout c crit). Qed.

(* ---- stop: what the reader finds ---- *)
(* files = the contents of r00000, r00001, ... in this order; nothing else is in the directory *)
Definition direct_view (c : config) (f : fs) (files : list bytes) : Prop :=
  (forall i, i < length files ->
     exists j, lookup f (rname c i) = Some j /\ plain (inode f j) /\ content f j = nth i files [])
  /\ (forall n j, lookup f n = Some j -> exists i, i < length files /\ n = rname c i).

Lemma numdinv_direct_view c w wr closed : NumDInv c w wr closed -> wpend wr = [] ->
  direct_view c (wfs w) (closed ++ [cur_view w wr]).
Proof.
  intros [Q W Hc Hcp Hcl Hon Hwr Hcap] P. split.
  - intros i Hi. rewrite app_length in Hi. cbn [length] in Hi.
    destruct (Nat.eq_dec i (length closed)) as [->|Hne].
    + exists (wino wr). split; [exact Hc|]. split; [exact Hcp|].
      rewrite app_nth2, Nat.sub_diag by lia. cbn [nth]. unfold cur_view. rewrite P, app_nil_r. reflexivity.
    + assert (Hi' : i < length closed) by lia. destruct (Hcl i Hi') as [j [Lj [Pj Cj]]]. exists j.
      split; [exact Lj|]. split; [exact Pj|]. rewrite app_nth1 by assumption. exact Cj.
  - intros n j L. destruct (Hon n j L) as [i [Hi E]]. exists i. rewrite app_length. cbn [length]. split; [lia | exact E].
Qed.

Lemma stop_rel_d c crit x a : numdcfg c crit -> RelD c crit x a ->
  let '(x', _) := step x OStop in
  match a with
  | None => names (wfs (s_w x')) = []
  | Some _ => direct_view c (wfs (s_w x')) (files_of a)
  end.
Proof.
  intros Hcfg R. pose proof (lstop_rel _ _ _ _ numd_layout c crit x a Hcfg R) as S.
  destruct (step x OStop) as [x' ob]. cbn [fst] in S. destruct a as [[closed cur]|]; [|exact S].
  destruct S as [wr [I [V P]]]. cbn [files_of]. rewrite <- V. exact (numdinv_direct_view _ _ _ _ I P).
Qed.

(* ---- the size rule ---- *)
Lemma run_size_d c m : numdcfg c (CSize m) -> forall ops x a, RelD c (CSize m) x a -> Forall basic_op ops ->
  a_run a ops (snd (run x ops)) = s_run m a ops
  /\ (forall i o, nth_error ops i = Some o -> forall b, (o = OWrite b \/ o = OPlain b) ->
        nth_error (snd (run x ops)) i = Some (ObsRes 0 (m <? N.of_nat (length (cur_of (s_run m a (firstn i ops)))))%N)).
Proof. exact (lrun_size _ _ _ _ numd_layout c m). Qed.
