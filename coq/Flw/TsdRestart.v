(* TimestampsDirect naming: sequences of runs on the same directory.  A writer that starts on the directory that earlier
   writers left behind never destroys, truncates or reorders what they wrote, and no file name is used twice: the files are
   named by keys (second in which the file was started, position within the second) that satisfy keys_ok over the WHOLE
   history.  Without append every run starts a new file (a restart in the second of the last file takes the next restart
   counter); with append the newest file - the last one of the directory - is continued under its old name, even if its time
   stamp is older than the present second; a run without a write changes nothing.

   A real finding on the way, since repaired in the code (fix: "TimestampsDirect with append and use_utc reads the newest time
   stamp back as UTC"): with append AND use_utc AND a zone offset <> 0 the time stamp read back from the newest file name was
   taken for local time, the writer started a file whose time stamp was shifted by the offset and the order of the names was no
   longer the order of writing.  The theorems hold for every offset and either choice of use_utc (example
   tsd_utc_append_fine: the history that was reordered before the repair). *)
Require Import FL.Base.Bytes FL.Base.BytesFacts FL.Base.PathName FL.Fs.Fs FL.Fs.FsFacts FL.Time.Civil FL.Time.TsFormat
  FL.Names.FileSpec FL.Names.NamesFacts FL.Names.SortFacts FL.Flw.Model FL.Flw.ModelFacts FL.Flw.NumFs FL.Flw.NumInv FL.Flw.Run
  FL.Flw.RunFacts FL.Flw.QuietFacts FL.Flw.NumRun FL.Oracles.O_Flw FL.Flw.NumTheorems FL.Flw.NumListing FL.Flw.NumRestart
  FL.Flw.TsCal FL.Flw.TsTime FL.Flw.TsNames FL.Flw.TsInv FL.Flw.TsRun FL.Flw.TsTheorems FL.Flw.TsRestartInv FL.Flw.TsRestart
  FL.Names.FamilyFacts FL.Oracles.ReaderOrder FL.Flw.TsReader FL.Flw.NumDTheorems
  FL.Flw.TsdInv FL.Flw.TsdRun FL.Flw.TsdTheorems FL.Flw.TsdRestartInv.
Import String.StringSyntax.
Open Scope nat_scope.

(* ------------------------------------------------------------------ the abstract view *)
(* None: the directory is empty.  Some (keys, closed, cur): the keys of ALL files in the order of their creation, the
   contents of all files but the last one, the content of the last one (including what its writer still buffers) *)
Definition dview := option (list key * list bytes * bytes).
Definition closedD (d : dview) : list bytes := match d with Some (_, cl, _) => cl | None => [] end.
Definition flatD (d : dview) : bytes := match d with Some (_, cl, cu) => concat cl ++ cu | None => [] end.
Definition keysD (d : dview) : list key := match d with Some (ks, _, _) => ks | None => [] end.
Definition filesD (d : dview) : list bytes := match d with Some (_, cl, cu) => cl ++ [cu] | None => [] end.

(* d' continues d: the same files, the last one possibly longer; or the last file of d - possibly after more was appended to
   it - is followed by further files.  No file but the last one changes, no key changes. *)
Definition ExtD (d d' : dview) : Prop :=
  match d with
  | None => True
  | Some (keys, closed, cur) =>
    match d' with
    | None => False
    | Some (keys', closed', cur') =>
      (keys' = keys /\ closed' = closed /\ exists t, cur' = cur ++ t)
      \/ (exists t mk mc, keys' = keys ++ mk /\ closed' = closed ++ (cur ++ t) :: mc)
    end
  end.

(* d' continues d with new files only: the last file of d is not touched either *)
Definition FreshD (d d' : dview) : Prop :=
  match d with
  | None => True
  | Some (keys, closed, cur) =>
    match d' with
    | None => False
    | Some (keys', closed', cur') => exists mk mc, keys' = keys ++ mk /\ closed' = closed ++ cur :: mc
    end
  end.

Lemma ExtD_refl d : ExtD d d.
Proof.
  destruct d as [[[keys closed] cur]|]; cbn [ExtD]; [|exact Logic.I].
  left. repeat split. exists []. rewrite app_nil_r. reflexivity.
Qed.

Lemma ExtD_trans d1 d2 d3 : ExtD d1 d2 -> ExtD d2 d3 -> ExtD d1 d3.
Proof.
  destruct d1 as [[[k1 c1] u1]|]; [|intros; exact Logic.I].
  destruct d2 as [[[k2 c2] u2]|]; [|intros []].
  destruct d3 as [[[k3 c3] u3]|]; [|intros _ []].
  cbn [ExtD]. intros [[-> [-> [t ->]]]|[t [mk [mc [-> ->]]]]] [[-> [-> [t' ->]]]|[t' [mk' [mc' [-> ->]]]]].
  - left. repeat split. exists (t ++ t'). rewrite app_assoc. reflexivity.
  - right. exists (t ++ t'), mk', mc'. rewrite app_assoc. split; reflexivity.
  - right. exists t, mk, mc. split; reflexivity.
  - right. exists t, (mk ++ mk'), (mc ++ (u2 ++ t') :: mc'). rewrite <- !app_assoc. split; reflexivity.
Qed.

Lemma ExtD_same keys closed cur t : ExtD (Some (keys, closed, cur)) (Some (keys, closed, cur ++ t)).
Proof. cbn [ExtD]. left. repeat split. exists t. reflexivity. Qed.

Lemma ExtD_rot keys closed cur k cur' : ExtD (Some (keys, closed, cur)) (Some (keys ++ [k], closed ++ [cur], cur')).
Proof. cbn [ExtD]. right. exists [], [k], []. rewrite app_nil_r. split; reflexivity. Qed.

Lemma FreshD_rot keys closed cur k cur' : FreshD (Some (keys, closed, cur)) (Some (keys ++ [k], closed ++ [cur], cur')).
Proof. cbn [FreshD]. exists [k], []. split; reflexivity. Qed.

Lemma FreshD_ExtD d1 d2 d3 : FreshD d1 d2 -> ExtD d2 d3 -> FreshD d1 d3.
Proof.
  destruct d1 as [[[k1 c1] u1]|]; [|intros; exact Logic.I].
  destruct d2 as [[[k2 c2] u2]|]; [|intros []].
  destruct d3 as [[[k3 c3] u3]|]; [|intros _ []].
  cbn [FreshD ExtD]. intros [mk [mc [-> ->]]] [[-> [-> [t' ->]]]|[t' [mk' [mc' [-> ->]]]]].
  - exists mk, mc. split; reflexivity.
  - exists (mk ++ mk'), (mc ++ (u2 ++ t') :: mc'). rewrite <- !app_assoc. split; reflexivity.
Qed.

Lemma FreshD_is_ExtD d1 d2 : FreshD d1 d2 -> ExtD d1 d2.
Proof.
  destruct d1 as [[[k1 c1] u1]|]; [|intros; exact Logic.I]. destruct d2 as [[[k2 c2] u2]|]; [|intros []].
  cbn [FreshD ExtD]. intros [mk [mc [-> ->]]]. right. exists [], mk, mc. rewrite app_nil_r. split; reflexivity.
Qed.

(* nothing that was there is touched: nothing happened at all, or new files only *)
Definition KeepD (d d' : dview) : Prop := d' = d \/ FreshD d d'.

Lemma KeepD_trans d1 d2 d3 : KeepD d1 d2 -> KeepD d2 d3 -> KeepD d1 d3.
Proof.
  intros [->|H1] [->|H2]; [left; reflexivity | right; exact H2 | right; exact H1 | right].
  exact (FreshD_ExtD _ _ _ H1 (FreshD_is_ExtD _ _ H2)).
Qed.

(* ------------------------------------------------------------------ the directory between two writers *)
(* described as what a writer with an empty buffer holds *)
Definition dir_tsd (c : config) (e lo : Z) (w : world) (d : dview) : Prop :=
  match d with
  | None => names (wfs w) = [] /\ inodes (wfs w) = [] /\ (lo <= wnow w)%Z
  | Some (keys, closed, cur) =>
    exists wr, TsdInv c e lo w wr keys closed /\ wpend wr = [] /\ cur_view w wr = cur
  end.

(* e: the offset that enters the time-stamp texts; off: the offset of the zone *)
Definition envTd (c : config) (e off : Z) (x : sys) : Prop :=
  s_tl x = [] /\ wacts (s_w x) = 0 /\ quiet (s_w x) /\ eoff c (s_w x) = e /\ woff (s_w x) = off.

(* no writer; n bounds the number of files *)
Definition IdleTd (c : config) (e off lo : Z) (n : nat) (x : sys) (d : dview) : Prop :=
  envTd c e off x /\ s_flw x = None /\ dir_tsd c e lo (s_w x) d /\ length (closedD d) <= n.
(* a writer that has not written yet: it has not looked at the directory *)
Definition PreTd (c : config) (e off lo : Z) (n : nat) (x : sys) (d : dview) : Prop :=
  envTd c e off x /\ s_flw x = Some (new_flw c) /\ dir_tsd c e lo (s_w x) d /\ S (length (closedD d)) <= n.
(* a writer that has written *)
Definition ActTd (c : config) (e off lo : Z) (n : nat) (x : sys) (d : dview) : Prop :=
  envTd c e off x /\
  match d with
  | None => False
  | Some (keys, closed, cur) =>
    exists wr roll, s_flw x = Some (st_tsd c e (nth (length closed) keys kd) roll wr)
      /\ TsdInv c e lo (s_w x) wr keys closed
      /\ cur_view (s_w x) wr = cur /\ length closed <= n /\ roll_size_ok roll (length cur)
  end.

(* ---- the names depend on the file spec only ---- *)
Lemma tsdinv_spec c c' e lo w wr keys closed : c_spec c = c_spec c' -> eoff c' w = e ->
  TsdInv c e lo w wr keys closed -> wpend wr = [] ->
  TsdInv c' e lo w {| wino := wino wr; wpend := []; wcap := c_cap c' |} keys closed.
Proof.
  intros E Hoff' [Q W Hnd Hoff Hlen Hc Hcp Hcl Hon Hko Hrg Hwr Hcap] Hp.
  constructor; cbn [wino wpend wcap]; try assumption.
  - rewrite <- (kname_spec_eq c c' e _ E). exact Hc.
  - intros i Hi. rewrite <- (kname_spec_eq c c' e _ E). exact (Hcl i Hi).
  - intros n j L. destruct (Hon n j L) as [i [Hi ->]]. exists i. split; [exact Hi | apply kname_spec_eq; exact E].
  - unfold wr_ok. cbn. destruct (c_cap c'); [lia | reflexivity].
  - reflexivity.
Qed.

Lemma dir_tsd_spec c c' e lo w d : c_spec c = c_spec c' -> eoff c' w = e -> dir_tsd c e lo w d -> dir_tsd c' e lo w d.
Proof.
  intros E Hoff'. destruct d as [[[keys closed] cur]|]; cbn [dir_tsd]; [|tauto].
  intros [wr [I [Hp V]]]. exists {| wino := wino wr; wpend := []; wcap := c_cap c' |}.
  split; [exact (tsdinv_spec c c' e lo w wr keys closed E Hoff' I Hp)|].
  split; [reflexivity|]. unfold cur_view in *. cbn [wino wpend]. rewrite Hp in V. exact V.
Qed.

Lemma idleTd_spec c c' e off lo n x d : c_spec c = c_spec c' -> c_utc c = c_utc c' ->
  IdleTd c e off lo n x d -> IdleTd c' e off lo n x d.
Proof.
  intros E U [[Ht [Ha [Q [Ho Hw]]]] [Es [D Hn]]].
  assert (Ho' : eoff c' (s_w x) = e) by (rewrite <- (eoff_utc c c' _ U); exact Ho).
  split; [repeat split; try assumption; apply Q|]. split; [exact Es|]. split; [exact (dir_tsd_spec c c' e lo _ d E Ho' D) | exact Hn].
Qed.

Lemma idleTd_mono c e off lo n m x d : n <= m -> IdleTd c e off lo n x d -> IdleTd c e off lo m x d.
Proof. intros H [A [B [C D]]]. split; [exact A|]. split; [exact B|]. split; [exact C | lia]. Qed.

(* ------------------------------------------------------------------ steps are steps of the synchronous handle *)
Lemma step_sync_tsd c crit x s o : tsdcfg c crit -> s_flw x = Some s -> f_cfg s = c -> step x o = sync_step x o.
Proof.
  intros [_ [Hts [_ Ha]]] Es <-. exact (RunFacts.step_sync_cfg x o s Es Hts Ha).
Qed.

Lemma envTd_env c e off x x' : envTd c e off x -> s_tl x' = [] -> same_env (s_w x) (s_w x') -> envTd c e off x'.
Proof.
  intros [Ht [Ha [Q [Ho Hw]]]] Ht' S. split; [exact Ht'|]. split; [exact (same_env_acts _ _ S Ha)|]. split; [apply S|].
  split; [rewrite (eoff_same_env c _ _ S); exact Ho|]. destruct S as [_ [_ [-> _]]]. exact Hw.
Qed.

(* ------------------------------------------------------------------ one operation of a writer that has written *)
Lemma d_next_ext w (keys : list key) (closed : list bytes) (cur : bytes) roll o :
  let '(keys', closed', cur', _) := d_next w (keys, closed, cur, roll) o in
  ExtD (Some (keys, closed, cur)) (Some (keys', closed', cur')).
Proof.
  destruct o; cbn [d_next]; try apply ExtD_refl.
  - destruct (rotation_necessary w roll); [apply ExtD_rot | apply ExtD_same].
  - destruct (rotation_necessary w roll); [apply ExtD_rot | apply ExtD_same].
  - apply ExtD_rot.
Qed.

Lemma act_step_td c crit e off lo hi n x D o :
  tsdcfg c crit -> tag_ok c -> years_ok e lo hi -> ActTd c e off lo n x (Some D) -> basic_op o -> tick_ok o ->
  (wnow (s_w x) <= hi)%Z -> (N.of_nat (S n) <= usize_max)%N ->
  exists D', ActTd c e off lo (S n) (fst (step x o)) (Some D') /\ ExtD (Some D) (Some D')
    /\ flatD (Some D') = flatD (Some D) ++ written [o]
    /\ wnow (s_w (fst (step x o))) = (wnow (s_w x) + dt_of o)%Z.
Proof.
  intros Hcfg T Y A Hb Htk Hhi Hmax. destruct D as [[keys closed] cur].
  destruct A as [[Ht [Ha [Q [Ho Hw]]]] [wr [roll [Es [I [V [Hn Z]]]]]]].
  assert (Hk : (N.of_nat (length keys) <= usize_max)%N) by (rewrite (td_len _ _ _ _ _ _ _ I); lia).
  assert (A : ActD c e lo (st_tsd c e (nth (length closed) keys kd) roll wr) (s_w x) (keys, closed, cur, roll)).
  { exists wr. split; [reflexivity|]. split; [exact I | exact V]. }
  destruct (act_step_tsd c crit e lo hi x _ keys closed cur roll o Hcfg T Y Es A Ht Hb Htk Hhi Hk)
    as [x' [s' [E [Es' [A' [Ht' [N' [O' Ac']]]]]]]]. rewrite E. cbn [fst].
  pose proof (d_next_view (s_w x) keys closed cur roll o Hb) as D1.
  pose proof (d_next_ext (s_w x) keys closed cur roll o) as D2.
  pose proof (a_step_flat (Some (closed, cur)) o (rot_of (d_obs (s_w x) roll o)) Hb) as F.
  destruct (d_next (s_w x) (keys, closed, cur, roll) o) as [[[keys' closed'] cur'] roll'].
  destruct D1 as [Ea [Hl [Z' _]]]. rewrite Ea in F. destruct A' as [wr' [-> [I' V']]].
  exists (keys', closed', cur'). split; [|split; [exact D2|]; split; [exact F | exact N']].
  split.
  { split; [exact Ht'|]. split; [rewrite Ac'; exact Ha|]. split; [exact (td_quiet _ _ _ _ _ _ _ I')|].
    split; [exact (td_off _ _ _ _ _ _ _ I') | rewrite O'; exact Hw]. }
  exists wr', roll'. split; [exact Es'|]. split; [exact I'|]. split; [exact V'|]. split; [lia | exact (Z' Z)].
Qed.

(* ------------------------------------------------------------------ the first write of a writer *)
(* the hypothesis for a writer with append (TsdRestartInv.append_ok) *)
Definition aok (c : config) : Prop := append_ok c.

Lemma first_write_td c crit e off lo hi n x d b :
  tsdcfg c crit -> tag_ok c -> years_ok e lo hi -> aok c -> PreTd c e off lo n x d ->
  (wnow (s_w x) <= hi)%Z -> (N.of_nat (S n) <= usize_max)%N ->
  exists w' s' rot D', write_buffer (new_flw c) (s_w x) b = (Ok tt, w', s', rot)
    /\ ActTd c e off lo (S n) {| s_flw := Some s'; s_w := w'; s_tl := []; s_dead := s_dead x |} (Some D')
    /\ ExtD d (Some D') /\ flatD (Some D') = flatD d ++ b /\ wnow w' = wnow (s_w x)
    /\ (c_append c = false -> FreshD d (Some D')).
Proof.
  intros Hcfg T Y Hao [E0 [Es [D Hn]]] Hhi Hmax. pose proof E0 as [Ht [Ha [Q [Ho Hw]]]].
  (* what initialize makes of the directory *)
  assert (IN : exists w1 wr1 roll1 keys1 closed1,
            initialize c (s_w x) = (Ok (Active (Some (mk_rs (NSTs (fst (nth (length closed1) keys1 kd)) None std_fmt) roll1)) wr1
                                               (kname c e (nth (length closed1) keys1 kd))), w1)
            /\ TsdInv c e lo w1 wr1 keys1 closed1 /\ same_env (s_w x) w1
            /\ roll_size_ok roll1 (length (cur_view w1 wr1))
            /\ ExtD d (Some (keys1, closed1, cur_view w1 wr1))
            /\ flatD (Some (keys1, closed1, cur_view w1 wr1)) = flatD d
            /\ length closed1 <= n
            /\ (c_append c = false -> FreshD d (Some (keys1, closed1, cur_view w1 wr1)))).
  { destruct d as [[[keys closed] cur]|]; cbn [dir_tsd closedD] in D, Hn.
    - destruct D as [wr [I [Hp V]]]. pose proof (td_len _ _ _ _ _ _ _ I) as Hlen.
      pose proof Hao as Hao'.
      destruct (initialize_view_tsd c crit e lo hi (s_w x) wr keys closed Hcfg T Y I Hp Hhi ltac:(lia) Hao')
        as [w1 [wr1 [st1 [keys1 [closed1 [Ei [I1 [S1 V1]]]]]]]].
      eexists w1, wr1, _, keys1, closed1. split; [exact Ei|]. split; [exact I1|]. split; [exact S1|]. split; [apply roll_of_size|].
      rewrite V in V1. destruct (c_append c); injection V1 as -> -> ->.
      + split; [apply ExtD_refl|]. split; [reflexivity|]. split; [lia | discriminate].
      + split; [apply ExtD_rot|]. split; [|split; [rewrite app_length; cbn [length]; lia | intros _; apply FreshD_rot]].
        cbn [flatD]. rewrite concat_app. cbn [concat]. rewrite !app_nil_r. reflexivity.
    - destruct D as [Hnm [Hin Hlo]].
      destruct (initialize_empty_tsd c crit e lo (s_w x) Hcfg Q Hnm Hin Ho Hlo) as [w1 [wr1 [roll1 [Ei [I1 [V1 [Z1 [S1 _]]]]]]]].
      exists w1, wr1, roll1, [(wnow (s_w x), 0)], []. cbn [length nth fst]. split; [exact Ei|]. split; [exact I1|]. split; [exact S1|].
      rewrite V1. split; [exact Z1|]. split; [exact Logic.I|]. split; [reflexivity|]. split; [lia | intros _; exact Logic.I]. }
  destruct IN as [w1 [wr1 [roll1 [keys1 [closed1 [Ei [I1 [S1 [Z1 [X1 [F1 [L1 N1]]]]]]]]]]]].
  assert (Hhi1 : (wnow w1 <= hi)%Z) by (rewrite (same_env_now _ _ S1); exact Hhi).
  pose proof (td_len _ _ _ _ _ _ _ I1) as Hlen1.
  assert (A1 : ActD c e lo (st_tsd c e (nth (length closed1) keys1 kd) roll1 wr1) w1 (keys1, closed1, cur_view w1 wr1, roll1)).
  { exists wr1. split; [reflexivity|]. split; [exact I1 | reflexivity]. }
  destruct (act_write_tsd c crit e lo hi _ w1 keys1 closed1 _ roll1 b Hcfg T Y A1 Hhi1 ltac:(lia)) as [w' [s' [E [S' A']]]].
  pose proof (d_next_view w1 keys1 closed1 (cur_view w1 wr1) roll1 (OWrite b) Logic.I) as D1.
  pose proof (d_next_ext w1 keys1 closed1 (cur_view w1 wr1) roll1 (OWrite b)) as X2.
  pose proof (a_step_flat (Some (closed1, cur_view w1 wr1)) (OWrite b) (rot_of (d_obs w1 roll1 (OWrite b))) Logic.I) as F2.
  destruct (d_next w1 (keys1, closed1, cur_view w1 wr1, roll1) (OWrite b)) as [[[keys' closed'] cur'] roll'].
  destruct D1 as [Ea [Hl [Z' _]]]. rewrite Ea in F2. destruct A' as [wr' [-> [I' V']]].
  eexists w', _, (rotation_necessary w1 roll1), (keys', closed', cur').
  split. { rewrite (write_buffer_init c (s_w x) b _ _ _ w1 Ei). exact E. }
  assert (S2 : same_env (s_w x) w') by (eapply same_env_trans; eassumption).
  split; [|split; [exact (ExtD_trans _ _ _ X1 X2)|split; [|split; [exact (same_env_now _ _ S2)|]]]].
  - split; [apply (envTd_env c e off x _ E0); [reflexivity | exact S2]|].
    exists wr', roll'. cbn [s_flw s_w]. split; [reflexivity|]. split; [exact I'|]. split; [exact V'|]. split; [lia | exact (Z' Z1)].
  - rewrite <- F1. cbn [written] in F2. rewrite app_nil_r in F2. exact F2.
  - intros Hna. exact (FreshD_ExtD _ _ _ (N1 Hna) X2).
Qed.

(* ------------------------------------------------------------------ one run *)
(* the state of a run: None as long as nothing has been written (the directory is still d0) *)
Definition GRelTd (c : config) (e off lo : Z) (n : nat) (x : sys) (d0 a : dview) : Prop :=
  match a with None => PreTd c e off lo n x d0 | Some _ => ActTd c e off lo n x a end.
Definition gviewD (d0 a : dview) : dview := match a with None => d0 | Some _ => a end.
(* a run without append has not touched what it found *)
Definition NoTouch (d0 a : dview) : Prop := match a with None => True | Some _ => FreshD d0 a end.

Lemma dir_tsd_tick c e lo w d dt : (0 <= dt)%Z -> dir_tsd c e lo w d -> dir_tsd c e lo (set_now w (wnow w + dt)%Z) d.
Proof.
  intros Hdt. destruct d as [[[keys closed] cur]|]; cbn [dir_tsd].
  - intros [wr [I [Hp V]]]. exists wr. split; [apply tsdinv_tick; assumption|]. split; [exact Hp | exact V].
  - intros [A [B C]]. repeat split; try assumption. cbn [set_now wnow]. lia.
Qed.

Lemma gstep_td c crit e off lo hi n x d0 a o :
  tsdcfg c crit -> tag_ok c -> years_ok e lo hi -> aok c -> GRelTd c e off lo n x d0 a -> basic_op o -> tick_ok o ->
  (wnow (s_w x) <= hi)%Z -> (N.of_nat (S n) <= usize_max)%N ->
  exists a', GRelTd c e off lo (S n) (fst (step x o)) d0 a' /\ ExtD (gviewD d0 a) (gviewD d0 a')
    /\ flatD (gviewD d0 a') = flatD (gviewD d0 a) ++ written [o]
    /\ wnow (s_w (fst (step x o))) = (wnow (s_w x) + dt_of o)%Z
    /\ (c_append c = false -> NoTouch d0 a -> NoTouch d0 a').
Proof.
  intros Hcfg T Y Hao G Hb Htk Hhi Hmax. destruct a as [D|].
  - cbn [GRelTd gviewD] in *. destruct (act_step_td c crit e off lo hi n x D o Hcfg T Y G Hb Htk Hhi Hmax) as [D' [A' [X' [F' W']]]].
    exists (Some D'). cbn [GRelTd gviewD NoTouch]. split; [exact A'|]. split; [exact X'|]. split; [exact F'|]. split; [exact W'|].
    intros _ N0. exact (FreshD_ExtD _ _ _ N0 X').
  - cbn [GRelTd gviewD] in *. pose proof G as [[Ht [Ha [Q [Ho Hw]]]] [Es [D Hn]]].
    rewrite (step_sync_tsd c crit x _ o Hcfg Es eq_refl).
    destruct o; try contradiction; cbn [sync_step dt_of written].
    + (* OWrite *)
      destruct (first_write_td c crit e off lo hi n x d0 (s_tl x ++ b) Hcfg T Y Hao G Hhi Hmax) as [w' [s' [rot [D' [E [A' [X' [F' [W' N']]]]]]]]].
      rewrite Es. cbn [new_flw f_poisoned]. fold (new_flw c). rewrite E. cbn [fst s_w].
      rewrite Ht in F'. cbn [app] in F'.
      exists (Some D'). cbn [GRelTd gviewD NoTouch]. rewrite app_nil_r. split; [exact A'|]. split; [exact X'|]. split; [exact F'|].
      split; [lia | intros Hna _; exact (N' Hna)].
    + (* OPlain *)
      destruct (first_write_td c crit e off lo hi n x d0 b Hcfg T Y Hao G Hhi Hmax) as [w' [s' [rot [D' [E [A' [X' [F' [W' N']]]]]]]]].
      rewrite Es. cbn [new_flw f_poisoned]. fold (new_flw c). rewrite E. cbn [fst s_w]. rewrite Ht.
      exists (Some D'). cbn [GRelTd gviewD NoTouch]. rewrite app_nil_r. split; [exact A'|]. split; [exact X'|]. split; [exact F'|].
      split; [lia | intros Hna _; exact (N' Hna)].
    + (* OFlush *)
      rewrite Es. cbn [new_flw f_poisoned flush_state f_inner fst s_w]. exists None. cbn [GRelTd gviewD NoTouch].
      split; [|split; [apply ExtD_refl|]; split; [rewrite app_nil_r; reflexivity | split; [lia | auto]]].
      split; [repeat split; try assumption; apply Q|]. split; [reflexivity|]. split; [exact D | lia].
    + (* OTrigger *)
      rewrite Es. cbn [new_flw f_poisoned f_cfg f_inner mount_next with_inner code_of fst s_w]. exists None. cbn [GRelTd gviewD NoTouch].
      split; [|split; [apply ExtD_refl|]; split; [rewrite app_nil_r; reflexivity | split; [lia | auto]]].
      split; [repeat split; try assumption; apply Q|]. split; [reflexivity|]. split; [exact D | lia].
    + (* OTick *)
      cbn [fst s_w set_now wnow tick_ok] in *. exists None. cbn [GRelTd gviewD NoTouch].
      split; [|split; [apply ExtD_refl|]; split; [rewrite app_nil_r; reflexivity | split; [reflexivity | auto]]].
      split; [repeat split; try assumption; apply Q|]. split; [exact Es|]. split; [apply dir_tsd_tick; assumption | lia].
    + (* OSnap *)
      cbn [fst]. exists None. cbn [GRelTd gviewD NoTouch].
      split; [|split; [apply ExtD_refl|]; split; [rewrite app_nil_r; reflexivity | split; [lia | auto]]].
      split; [repeat split; try assumption; apply Q|]. split; [exact Es|]. split; [exact D | lia].
Qed.

Lemma grun_td c crit e off lo hi d0 : tsdcfg c crit -> tag_ok c -> years_ok e lo hi -> aok c ->
  forall ops x a n, GRelTd c e off lo n x d0 a -> Forall basic_op ops -> Forall tick_ok ops ->
  (wnow (s_w x) + elapsed ops <= hi)%Z -> (N.of_nat (n + length ops) <= usize_max)%N ->
  exists a', GRelTd c e off lo (n + length ops) (fst (run x ops)) d0 a' /\ ExtD (gviewD d0 a) (gviewD d0 a')
    /\ flatD (gviewD d0 a') = flatD (gviewD d0 a) ++ written ops
    /\ wnow (s_w (fst (run x ops))) = (wnow (s_w x) + elapsed ops)%Z
    /\ (c_append c = false -> NoTouch d0 a -> NoTouch d0 a').
Proof.
  intros Hcfg T Y Hao. induction ops as [|o r IH]; intros x a n G Hb Htk Hhi Hmax.
  - cbn [run fst length elapsed written]. rewrite Nat.add_0_r, app_nil_r. exists a.
    split; [exact G|]. split; [apply ExtD_refl|]. split; [reflexivity|]. split; [lia | auto].
  - cbn [run]. inversion Hb as [|o' r' Ho Hr]; subst. inversion Htk as [|o' r' Hto Htr]; subst.
    cbn [elapsed length] in *. pose proof (elapsed_nonneg r Htr) as Er.
    assert (Hdt : (0 <= dt_of o)%Z) by (destruct o; cbn [dt_of tick_ok] in *; lia).
    destruct (gstep_td c crit e off lo hi n x d0 a o Hcfg T Y Hao G Ho Hto ltac:(lia) ltac:(lia)) as [a1 [G1 [X1 [F1 [W1 N1]]]]].
    destruct (step x o) as [x1 ob]. cbn [fst] in *.
    destruct (IH x1 a1 (S n) G1 Hr Htr ltac:(lia) ltac:(lia)) as [a2 [G2 [X2 [F2 [W2 N2]]]]].
    destruct (run x1 r) as [x2 obs]. cbn [fst] in *.
    exists a2. replace (n + S (length r)) with (S n + length r) by lia.
    split; [exact G2|]. split; [exact (ExtD_trans _ _ _ X1 X2)|].
    split; [rewrite F2, F1, (written_cons o r), app_assoc; reflexivity|]. split; [lia | auto].
Qed.

(* ---- start, stop, the clock between two runs ---- *)
Lemma start_td c e off lo n x d : IdleTd c e off lo n x d -> PreTd c e off lo (S n) (fst (step x (OStart c))) d.
Proof.
  intros [[Ht [Ha [Q [Ho Hw]]]] [Es [D Hn]]]. rewrite (step_sync_none x _ Es). cbn [sync_step fst].
  split; [repeat split; try assumption; apply Q|]. split; [reflexivity|]. split; [exact D | lia].
Qed.

Lemma idle_tick_td c e off lo n x d dt : (0 <= dt)%Z -> IdleTd c e off lo n x d ->
  IdleTd c e off lo n (fst (step x (OTick dt))) d /\ wnow (s_w (fst (step x (OTick dt)))) = (wnow (s_w x) + dt)%Z.
Proof.
  intros Hdt [[Ht [Ha [Q [Ho Hw]]]] [Es [D Hn]]]. rewrite (step_sync_none x _ Es). cbn [sync_step fst s_w set_now wnow].
  split; [|reflexivity].
  split; [repeat split; try assumption; apply Q|]. split; [exact Es|]. split; [apply dir_tsd_tick; assumption | exact Hn].
Qed.

Lemma stop_td c crit e off lo n x d0 a : tsdcfg c crit -> GRelTd c e off lo n x d0 a ->
  IdleTd c e off lo n (fst (step x OStop)) (gviewD d0 a) /\ wnow (s_w (fst (step x OStop))) = wnow (s_w x).
Proof.
  intros Hcfg G. destruct a as [[[keys closed] cur]|]; cbn [GRelTd gviewD] in *.
  - destruct G as [E0 [wr [roll [Es [I [V [Hn Z]]]]]]]. pose proof E0 as [Ht [Ha [Q [Ho Hw]]]].
    rewrite (step_sync_tsd c crit x _ OStop Hcfg Es eq_refl). cbn [sync_step]. rewrite Es. unfold st_tsd. cbn [f_poisoned].
    rewrite drop_state_quiet by exact Q. cbn [fst s_w].
    destruct (tsdinv_flushed c e lo (s_w x) wr keys closed I) as [I1 V1].
    pose proof (flushed_env (s_w x) wr Q) as SE.
    split; [|exact (same_env_now _ _ SE)].
    split; [apply (envTd_env c e off x _ E0); [exact Ht | exact SE]|].
    split; [reflexivity|]. cbn [s_w dir_tsd closedD]. split; [|exact Hn].
    exists (emptied wr). split; [exact I1|]. split; [reflexivity|]. rewrite V1. exact V.
  - destruct G as [[Ht [Ha [Q [Ho Hw]]]] [Es [D Hn]]].
    rewrite (step_sync_tsd c crit x _ OStop Hcfg Es eq_refl). cbn [sync_step].
    rewrite Es. cbn [new_flw f_poisoned drop_state shutdown_state f_inner fst s_w]. split; [|reflexivity].
    split; [repeat split; try assumption; apply Q|]. split; [reflexivity|]. split; [exact D | lia].
Qed.

(* ---- one whole run, after the clock has advanced by dt ---- *)
Lemma one_run_td c crit e off lo hi n x d dt ops :
  tsdcfg c crit -> tag_ok c -> years_ok e lo hi -> aok c -> IdleTd c e off lo n x d -> (0 <= dt)%Z ->
  Forall basic_op ops -> Forall tick_ok ops ->
  (wnow (s_w x) + elapsed (run_t dt c ops) <= hi)%Z -> (N.of_nat (n + length (run_t dt c ops)) <= usize_max)%N ->
  exists d', IdleTd c e off lo (n + length (run_t dt c ops)) (fst (run x (run_t dt c ops))) d'
    /\ ExtD d d' /\ flatD d' = flatD d ++ written ops
    /\ wnow (s_w (fst (run x (run_t dt c ops)))) = (wnow (s_w x) + elapsed (run_t dt c ops))%Z
    /\ (c_append c = false -> KeepD d d').
Proof.
  intros Hcfg T Y Hao Id Hdt Hb Htk Hhi Hmax. unfold run_t in *.
  cbn [elapsed dt_of length] in Hhi, Hmax. rewrite elapsed_app in Hhi. rewrite app_length in Hmax. cbn [elapsed dt_of length] in Hhi, Hmax.
  pose proof (elapsed_nonneg ops Htk) as Eo.
  cbn [run].
  destruct (idle_tick_td c e off lo n x d dt Hdt Id) as [Id0 W0]. destruct (step x (OTick dt)) as [xa oba]. cbn [fst] in Id0, W0.
  pose proof (start_td c e off lo n xa d Id0) as P0. pose proof (start_now xa c) as W1.
  destruct (step xa (OStart c)) as [x0 ob0]. cbn [fst] in P0, W1.
  assert (G0 : GRelTd c e off lo (S n) x0 d None) by exact P0.
  destruct (grun_td c crit e off lo hi d Hcfg T Y Hao ops x0 None (S n) G0 Hb Htk ltac:(lia) ltac:(lia)) as [a1 [G1 [X1 [F1 [W2 N1]]]]].
  pose proof (fst_run_app ops [OStop] x0) as RA.
  destruct (run x0 (ops ++ [OStop])) as [x2 obs2]. cbn [fst] in RA |- *.
  destruct (run x0 ops) as [x1 obs1]. cbn [fst] in RA, G1, W2.
  destruct (stop_td c crit e off lo (S n + length ops) x1 d a1 Hcfg G1) as [Id2 W3].
  cbn [run] in RA. destruct (step x1 OStop) as [x2' ob2]. cbn [fst] in RA, Id2, W3. subst x2'.
  exists (gviewD d a1). cbn [gviewD] in X1, F1.
  split; [apply (idleTd_mono c e off lo (S n + length ops)); [cbn [length]; rewrite app_length; cbn [length]; lia | exact Id2]|].
  split; [exact X1|]. split; [exact F1|].
  split; [cbn [elapsed dt_of]; rewrite elapsed_app; cbn [elapsed dt_of]; lia|].
  intros Hna. specialize (N1 Hna Logic.I). destruct a1 as [D1|]; [right; exact N1 | left; reflexivity].
Qed.

(* ------------------------------------------------------------------ sequences of runs *)
(* histories as for Timestamps naming (TsRestart.trun, runs_ops_t, runs_written_t): before each run the clock advances by
   dt >= 0.  Every run: the same file spec, the same choice of use_utc; its own criterion, buffer capacity and append flag.
   A run with append: the infix is found in the names (probe_ok; for instance by
   TsdRestartInv.probe_free_ok) *)
Definition cfg_of (r : trun) : config := snd (fst r).
Definition run_ok_tsd (sp : file_spec) (utc : bool) (r : trun) : Prop :=
  let '(dt, c, ops) := r in
  (0 <= dt)%Z /\ c_spec c = sp /\ c_utc c = utc /\ (exists crit, tsdcfg c crit) /\ tag_ok c
  /\ Forall basic_op ops /\ Forall tick_ok ops
  /\ (c_append c = true -> probe_ok c).

Lemma run_ok_tsd_elim sp utc dt c ops : run_ok_tsd sp utc (dt, c, ops) ->
  (0 <= dt)%Z /\ c_spec c = sp /\ c_utc c = utc /\ (exists crit, tsdcfg c crit) /\ tag_ok c
  /\ Forall basic_op ops /\ Forall tick_ok ops
  /\ (c_append c = true -> probe_ok c).
Proof. exact (fun H => H). Qed.

Lemma run_ok_tsd_intro sp utc dt c ops :
  (0 <= dt)%Z /\ c_spec c = sp /\ c_utc c = utc /\ (exists crit, tsdcfg c crit) /\ tag_ok c
  /\ Forall basic_op ops /\ Forall tick_ok ops
  /\ (c_append c = true -> probe_ok c) -> run_ok_tsd sp utc (dt, c, ops).
Proof. exact (fun H => H). Qed.

Lemma runs_elapsed_nonneg_tsd sp utc rs : Forall (run_ok_tsd sp utc) rs -> (0 <= elapsed (runs_ops_t rs))%Z.
Proof.
  induction 1 as [|[[dt c] ops] r Hok _ IH]; cbn [runs_ops_t elapsed]; [lia|].
  apply run_ok_tsd_elim in Hok. destruct Hok as [Hdt [_ [_ [_ [_ [_ [Htk _]]]]]]].
  rewrite elapsed_app. unfold run_t. cbn [elapsed dt_of]. rewrite elapsed_app. cbn [elapsed dt_of].
  pose proof (elapsed_nonneg ops Htk). lia.
Qed.

Definition no_append (r : trun) : Prop := c_append (cfg_of r) = false.

Lemma runs_rel_td sp (utc : bool) off lo hi : let e := (if utc then 0 else off)%Z in years_ok e lo hi ->
  forall rs x d c0 n, c_spec c0 = sp -> c_utc c0 = utc -> Forall (run_ok_tsd sp utc) rs -> IdleTd c0 e off lo n x d ->
  (wnow (s_w x) + elapsed (runs_ops_t rs) <= hi)%Z -> (N.of_nat (n + length (runs_ops_t rs)) <= usize_max)%N ->
  exists d', IdleTd c0 e off lo (n + length (runs_ops_t rs)) (fst (run x (runs_ops_t rs))) d'
    /\ ExtD d d' /\ flatD d' = flatD d ++ runs_written_t rs
    /\ wnow (s_w (fst (run x (runs_ops_t rs)))) = (wnow (s_w x) + elapsed (runs_ops_t rs))%Z
    /\ (Forall no_append rs -> KeepD d d').
Proof.
  intros e Y. induction rs as [|[[dt c] ops] r IH]; intros x d c0 n Ec0 Eu0 Hrs Id Hhi Hmax.
  - cbn [runs_ops_t runs_written_t run fst length elapsed]. rewrite Nat.add_0_r, app_nil_r. exists d.
    split; [exact Id|]. split; [apply ExtD_refl|]. split; [reflexivity|]. split; [lia | intros _; left; reflexivity].
  - inversion Hrs as [|r0 r' Hok Hr]; subst. apply run_ok_tsd_elim in Hok.
    destruct Hok as [Hdt [Ec [Eu [[crit Hcfg] [T [Hb [Htk Hap]]]]]]].
    cbn [runs_ops_t runs_written_t] in *. rewrite elapsed_app in Hhi. rewrite app_length in Hmax.
    pose proof (runs_elapsed_nonneg_tsd _ _ r Hr) as Er.
    assert (Id' : IdleTd c e off lo n x d) by (apply (idleTd_spec c0 c); congruence).
    assert (Hao : aok c).
    { exact Hap. }
    destruct (one_run_td c crit e off lo hi n x d dt ops Hcfg T Y Hao Id' Hdt Hb Htk ltac:(lia) ltac:(lia)) as [d1 [Id1 [X1 [F1 [W1 K1]]]]].
    rewrite fst_run_app. set (x1 := fst (run x (run_t dt c ops))) in *.
    assert (Id1' : IdleTd c0 e off lo (n + length (run_t dt c ops)) x1 d1) by (apply (idleTd_spec c c0); congruence).
    destruct (IH x1 d1 c0 (n + length (run_t dt c ops)) eq_refl eq_refl Hr Id1' ltac:(lia) ltac:(lia)) as [d2 [Id2 [X2 [F2 [W2 K2]]]]].
    exists d2. rewrite app_length, elapsed_app, Nat.add_assoc.
    split; [exact Id2|]. split; [exact (ExtD_trans _ _ _ X1 X2)|].
    split; [rewrite F2, F1, app_assoc; reflexivity|]. split; [lia|].
    intros Hna. inversion Hna as [|r0 r' Hn0 Hnr]; subst. exact (KeepD_trans _ _ _ (K1 Hn0) (K2 Hnr)).
Qed.

Lemma idleTd0 c t0 off : IdleTd c (ts_e c off) off t0 0 (sys0 t0 off) None.
Proof. cbn. repeat split; cbn; lia. Qed.

(* ------------------------------------------------------------------ what the reader finds between two writers *)
Lemma tsd_view_spec c c' e f keys files : c_spec c = c_spec c' -> tsd_view c e f keys files -> tsd_view c' e f keys files.
Proof.
  intros E [Hlen [Hcl [Hon Hnd]]]. split; [exact Hlen|]. split; [|split; [|exact Hnd]].
  - intros i Hi. rewrite <- (kname_spec_eq c c' e _ E). exact (Hcl i Hi).
  - intros n j L. destruct (Hon n j L) as [i [Hi ->]]. exists i. split; [exact Hi | apply kname_spec_eq; exact E].
Qed.

Lemma idleTd_view sp c0 e off lo n x d : c_spec c0 = sp -> IdleTd c0 e off lo n x d ->
  (forall c, c_spec c = sp -> tsd_view c e (wfs (s_w x)) (keysD d) (filesD d))
  /\ concat (filesD d) = flatD d /\ keys_ok (keysD d) /\ (forall k, In k (keysD d) -> (lo <= fst k <= wnow (s_w x))%Z).
Proof.
  intros E0 [_ [_ [D _]]]. destruct d as [[[keys closed] cur]|]; cbn [dir_tsd keysD filesD flatD] in *.
  - destruct D as [wr [I [Hp V]]]. split; [|split; [|split; [exact (td_keys _ _ _ _ _ _ _ I) | exact (td_range _ _ _ _ _ _ _ I)]]].
    + intros c Ec. apply (tsd_view_spec c0 c); [congruence|]. rewrite <- V. apply (tsdinv_view c0 e lo); assumption.
    + rewrite concat_app. cbn [concat]. rewrite app_nil_r. reflexivity.
  - destruct D as [Hn _]. split; [|split; [reflexivity | split; [constructor | intros k []]]].
    intros c _. apply tsd_view_nil. auto.
Qed.

(* ------------------------------------------------------------------ THE THEOREMS *)
(* Any number of runs on the same directory, starting from the empty one; before each run the clock may advance (and it may
   advance within the runs); each run has its own criterion, buffer capacity and append flag; all runs have the same file
   spec and the same choice of use_utc.  e is the offset that enters the time-stamp texts.

   After the whole history the directory consists exactly of the plain files named by keys (second of the start, position),
   in the order of their creation (files = [] stands for the empty directory, tsd_view_nil);
   - their contents, in this order, are exactly the bytes written in all runs, in the order of the writing;
   - keys_ok keys: over the WHOLE history the keys are pairwise distinct and strictly increasing in the order of creation
     (keys_ok_order, ts_names_distinct in TsTheorems.v, tsd_view_names): no file name is used twice, across runs too. *)
Theorem timestampsdirect_restarts sp utc t0 off rs :
  Forall (run_ok_tsd sp utc) rs ->
  let e := if utc then 0%Z else off in
  (0 <= t0 + e)%Z -> (t0 + elapsed (runs_ops_t rs) + e < sec_max)%Z -> (N.of_nat (length (runs_ops_t rs)) <= usize_max)%N ->
  let f := wfs (s_w (fst (run (sys0 t0 off) (runs_ops_t rs)))) in
  exists keys files,
    (forall c, c_spec c = sp -> tsd_view c e f keys files)
    /\ concat files = runs_written_t rs
    /\ keys_ok keys
    /\ (forall k, In k keys -> (t0 <= fst k <= t0 + elapsed (runs_ops_t rs))%Z).
Proof.
  intros Hrs e Hlo Hhi Hmax f.
  assert (Y : years_ok e t0 (t0 + elapsed (runs_ops_t rs))) by (split; assumption).
  pose proof (idleTd0 (sp_config_utc sp utc) t0 off) as Id0. change (ts_e (sp_config_utc sp utc) off) with e in Id0.
  destruct (runs_rel_td sp utc off t0 _ Y rs (sys0 t0 off) None (sp_config_utc sp utc) 0 eq_refl eq_refl Hrs Id0
              ltac:(cbn [sys0 s_w world0 wnow]; lia) ltac:(cbn [Nat.add]; exact Hmax)) as [d' [Id [_ [F [W _]]]]].
  cbn [flatD app] in F. cbn [sys0 s_w world0 wnow] in W. fold f in Id.
  destruct (idleTd_view sp (sp_config_utc sp utc) e off t0 _ _ d' eq_refl Id) as [V [C [K Rg]]].
  exists (keysD d'), (filesD d'). split; [exact V|]. split; [rewrite C; exact F|]. split; [exact K|].
  intros k Ik. specialize (Rg k Ik). lia.
Qed.
Print Assumptions timestampsdirect_restarts.

(* Later runs never change an earlier file and never reuse a name: after rs1 the directory shows (keys1, files1), after the
   further runs rs2 it shows (keys2, files2): every file of before is there under its key; all but the last one have their
   content of before, the last one - the newest file - has at most been continued (by a run with append); further files follow.
   If no run of rs2 has append, the last file is untouched, too: files2 = files1 ++ more. *)
Theorem timestampsdirect_restarts_keep sp utc t0 off rs1 rs2 :
  Forall (run_ok_tsd sp utc) (rs1 ++ rs2) ->
  let e := if utc then 0%Z else off in
  (0 <= t0 + e)%Z -> (t0 + elapsed (runs_ops_t (rs1 ++ rs2)) + e < sec_max)%Z ->
  (N.of_nat (length (runs_ops_t (rs1 ++ rs2))) <= usize_max)%N ->
  let f1 := wfs (s_w (fst (run (sys0 t0 off) (runs_ops_t rs1)))) in
  let f2 := wfs (s_w (fst (run (sys0 t0 off) (runs_ops_t (rs1 ++ rs2))))) in
  exists keys1 files1 keys2 files2,
    (forall c, c_spec c = sp -> tsd_view c e f1 keys1 files1)
    /\ concat files1 = runs_written_t rs1
    /\ (forall c, c_spec c = sp -> tsd_view c e f2 keys2 files2)
    /\ concat files2 = runs_written_t (rs1 ++ rs2)
    /\ keys_ok keys2
    /\ (files1 = []
        \/ exists closed cur t mk more,
             files1 = closed ++ [cur] /\ keys2 = keys1 ++ mk /\ files2 = closed ++ (cur ++ t) :: more)
    /\ (Forall no_append rs2 -> exists mk more, keys2 = keys1 ++ mk /\ files2 = files1 ++ more).
Proof.
  intros Hrs e Hlo Hhi Hmax f1 f2. apply Forall_app in Hrs. destruct Hrs as [Hrs1 Hrs2].
  pose proof (runs_elapsed_nonneg_tsd sp utc) as EN.
  unfold f2. rewrite runs_ops_t_app in *. rewrite elapsed_app in Hhi. rewrite app_length in Hmax.
  pose proof (EN rs1 Hrs1) as E1. pose proof (EN rs2 Hrs2) as E2.
  set (hi := (t0 + (elapsed (runs_ops_t rs1) + elapsed (runs_ops_t rs2)))%Z).
  assert (Y : years_ok e t0 hi) by (split; assumption).
  pose proof (idleTd0 (sp_config_utc sp utc) t0 off) as Id0. change (ts_e (sp_config_utc sp utc) off) with e in Id0.
  destruct (runs_rel_td sp utc off t0 hi Y rs1 (sys0 t0 off) None (sp_config_utc sp utc) 0 eq_refl eq_refl Hrs1 Id0
              ltac:(cbn [sys0 s_w world0 wnow]; unfold hi; lia) ltac:(cbn [Nat.add]; lia)) as [d1 [Id1 [_ [F1 [W1 _]]]]].
  cbn [flatD app] in F1. cbn [sys0 s_w world0 wnow] in W1. cbn [Nat.add] in Id1.
  rewrite fst_run_app. set (x1 := fst (run (sys0 t0 off) (runs_ops_t rs1))) in *.
  destruct (runs_rel_td sp utc off t0 hi Y rs2 x1 d1 (sp_config_utc sp utc) _ eq_refl eq_refl Hrs2 Id1
              ltac:(unfold hi; lia) ltac:(lia)) as [d2 [Id2 [X2 [F2 [W2 K2]]]]].
  destruct (idleTd_view sp (sp_config_utc sp utc) e off t0 _ _ d1 eq_refl Id1) as [V1 [C1 _]].
  destruct (idleTd_view sp (sp_config_utc sp utc) e off t0 _ _ d2 eq_refl Id2) as [V2 [C2 [Ko2 _]]].
  exists (keysD d1), (filesD d1), (keysD d2), (filesD d2).
  split; [exact V1|]. split; [rewrite C1; exact F1|]. split; [exact V2|]. split; [rewrite C2, F2, runs_written_t_app, F1; reflexivity|].
  split; [exact Ko2|]. split.
  - destruct d1 as [[[keys1 closed1] cur1]|]; [right | left; reflexivity].
    destruct d2 as [[[keys2 closed2] cur2]|]; [|destruct X2]. cbn [keysD filesD ExtD] in *.
    destruct X2 as [[-> [-> [t ->]]]|[t [mk [mc [-> ->]]]]].
    + exists closed1, cur1, t, [], []. rewrite app_nil_r. auto.
    + exists closed1, cur1, t, mk, (mc ++ [cur2]). rewrite <- app_assoc. auto.
  - intros Hna. destruct (K2 Hna) as [->|Hf]; [exists [], []; rewrite !app_nil_r; auto|].
    destruct d1 as [[[keys1 closed1] cur1]|]; [|exists (keysD d2), (filesD d2); auto].
    destruct d2 as [[[keys2 closed2] cur2]|]; [|destruct Hf]. cbn [keysD filesD FreshD] in *.
    destruct Hf as [mk [mc [-> ->]]]. exists mk, (mc ++ [cur2]). rewrite <- !app_assoc. auto.
Qed.
Print Assumptions timestampsdirect_restarts_keep.

(* no name twice: spelled out for the names; the order of creation is the strict order of (second, position) *)
Theorem timestampsdirect_restarts_names sp utc t0 off rs :
  Forall (run_ok_tsd sp utc) rs ->
  let e := if utc then 0%Z else off in
  (0 <= t0 + e)%Z -> (t0 + elapsed (runs_ops_t rs) + e < sec_max)%Z -> (N.of_nat (length (runs_ops_t rs)) <= usize_max)%N ->
  let f := wfs (s_w (fst (run (sys0 t0 off) (runs_ops_t rs)))) in
  exists keys files,
    (forall c, c_spec c = sp -> tsd_view c e f keys files)
    /\ concat files = runs_written_t rs
    /\ (forall i j, i < j < length keys ->
          let a := nth i keys kd in let b := nth j keys kd in (fst a < fst b)%Z \/ (fst a = fst b /\ snd a < snd b))
    /\ (forall c, c_spec c = sp ->
          forall i j, i < length keys -> j < length keys -> kname c e (nth i keys kd) = kname c e (nth j keys kd) -> i = j).
Proof.
  intros Hrs e Hlo Hhi Hmax f.
  destruct (timestampsdirect_restarts sp utc t0 off rs Hrs Hlo Hhi Hmax) as [keys [files [V [F [K Rg]]]]].
  exists keys, files. split; [exact V|]. split; [exact F|]. split; [exact (proj1 (keys_ok_order keys K))|].
  intros c _. apply (ts_names_distinct c e t0 (t0 + elapsed (runs_ops_t rs)) keys K); [split; assumption | exact Rg].
Qed.
Print Assumptions timestampsdirect_restarts_names.

(* not reordered: the reader (Oracles/ReaderOrder.v: sorted by time stamp, then by restart counter) gets the files in the order
   in which they were written, over all runs; their concatenation is the stream of all runs *)
Theorem timestampsdirect_restarts_reader sp utc t0 off rs c crit :
  Forall (run_ok_tsd sp utc) rs ->
  let e := if utc then 0%Z else off in
  (0 <= t0 + e)%Z -> (t0 + elapsed (runs_ops_t rs) + e < sec_max)%Z -> (N.of_nat (length (runs_ops_t rs)) <= usize_max)%N ->
  c_spec c = sp -> tsdcfg c crit -> not_gz c ->
  let x := fst (run (sys0 t0 off) (runs_ops_t rs)) in
  concat (family_in_order c (snap_of x)) = runs_written_t rs
  /\ exists keys, tsd_view c e (wfs (s_w x)) keys (family_in_order c (snap_of x)) /\ keys_ok keys.
Proof.
  intros Hrs e Hlo Hhi Hmax Ec Hcfg G x.
  destruct (timestampsdirect_restarts sp utc t0 off rs Hrs Hlo Hhi Hmax) as [keys [files [V [F [K Rg]]]]].
  assert (Y : years_ok e t0 (t0 + elapsed (runs_ops_t rs))) by (split; assumption).
  pose proof (tsd_reader_order c crit e _ _ _ keys files Hcfg G Y Rg K (V c Ec)) as E. rewrite <- snap_of_list in E.
  fold x in E. rewrite E. split; [exact F|]. exists keys. split; [exact (V c Ec) | exact K].
Qed.
Print Assumptions timestampsdirect_restarts_reader.

(* ------------------------------------------------------------------ a run without a write changes nothing *)
(* the writer looks at the directory at its first write only (lazy initialisation) *)
Lemma run_without_write_tsd c crit x ops : tsdcfg c crit -> s_flw x = None -> Forall no_write_op ops ->
  wfs (s_w (fst (run x (OStart c :: ops ++ [OStop])))) = wfs (s_w x).
Proof.
  intros Hcfg Es Hops. cbn [run]. rewrite (step_sync_none x _ Es). cbn [sync_step].
  set (x0 := {| s_flw := Some (new_flw c); s_w := s_w x; s_tl := s_tl x; s_dead := false |}).
  assert (G : forall l y, Forall no_write_op l -> s_flw y = Some (new_flw c) ->
            s_flw (fst (run y l)) = Some (new_flw c) /\ wfs (s_w (fst (run y l))) = wfs (s_w y)).
  { induction l as [|o r IH]; intros y Hl Ey; [split; [exact Ey | reflexivity]|].
    inversion Hl as [|o' r' Ho Hr]; subst. cbn [run].
    assert (S1 : s_flw (fst (step y o)) = Some (new_flw c) /\ wfs (s_w (fst (step y o))) = wfs (s_w y)).
    { rewrite (step_sync_tsd c crit y _ o Hcfg Ey eq_refl).
      destruct o; try contradiction; cbn [sync_step]; rewrite ?Ey; cbn [new_flw f_poisoned flush_state f_inner f_cfg mount_next with_inner fst s_flw s_w];
        split; reflexivity || exact Ey. }
    destruct (step y o) as [y1 ob]. cbn [fst] in S1. destruct S1 as [E1 F1].
    destruct (IH y1 Hr E1) as [E2 F2]. destruct (run y1 r) as [y2 obs]. cbn [fst] in *. split; [exact E2 | congruence]. }
  destruct (G ops x0 Hops eq_refl) as [E1 F1].
  pose proof (fst_run_app ops [OStop] x0) as RA. destruct (run x0 (ops ++ [OStop])) as [x2 obs2]. cbn [fst] in RA |- *. rewrite RA.
  set (x1 := fst (run x0 ops)) in *. cbn [run].
  rewrite (step_sync_tsd c crit x1 _ OStop Hcfg E1 eq_refl). cbn [sync_step]. rewrite E1.
  cbn [new_flw f_poisoned drop_state shutdown_state f_inner fst s_w]. exact F1.
Qed.

(* after any history: one more run (any configuration of this naming, any append flag) that flushes, triggers rotations,
   lets the clock advance, but does not write, leaves the directory as it is *)
Theorem timestampsdirect_run_without_write sp utc t0 off rs dt c crit ops :
  Forall (run_ok_tsd sp utc) rs ->
  let e := if utc then 0%Z else off in
  (0 <= t0 + e)%Z -> (t0 + elapsed (runs_ops_t rs) + e < sec_max)%Z -> (N.of_nat (length (runs_ops_t rs)) <= usize_max)%N ->
  tsdcfg c crit -> Forall no_write_op ops ->
  wfs (s_w (fst (run (sys0 t0 off) (runs_ops_t rs ++ run_t dt c ops)))) = wfs (s_w (fst (run (sys0 t0 off) (runs_ops_t rs)))).
Proof.
  intros Hrs e Hlo Hhi Hmax Hcfg Hops.
  assert (Y : years_ok e t0 (t0 + elapsed (runs_ops_t rs))) by (split; assumption).
  pose proof (idleTd0 (sp_config_utc sp utc) t0 off) as Id0. change (ts_e (sp_config_utc sp utc) off) with e in Id0.
  destruct (runs_rel_td sp utc off t0 _ Y rs (sys0 t0 off) None (sp_config_utc sp utc) 0 eq_refl eq_refl Hrs Id0
              ltac:(cbn [sys0 s_w world0 wnow]; lia) ltac:(cbn [Nat.add]; exact Hmax)) as [d' [[_ [Es _]] _]].
  rewrite fst_run_app. set (x1 := fst (run (sys0 t0 off) (runs_ops_t rs))) in *.
  unfold run_t. change (OTick dt :: OStart c :: ops ++ [OStop]) with ([OTick dt] ++ (OStart c :: ops ++ [OStop])).
  rewrite fst_run_app. set (x2 := fst (run x1 [OTick dt])).
  assert (E2 : s_flw x2 = None /\ wfs (s_w x2) = wfs (s_w x1)).
  { unfold x2. cbn [run]. rewrite (step_sync_none x1 _ Es). cbn [sync_step fst s_flw s_w set_now wfs]. split; [exact Es | reflexivity]. }
  destruct E2 as [Es2 F2]. rewrite (run_without_write_tsd c crit x2 ops Hcfg Es2 Hops). exact F2.
Qed.
Print Assumptions timestampsdirect_run_without_write.

(* ------------------------------------------------------------------ examples *)
Open Scope string_scope.
Definition rsd_sp : file_spec := ex_sp "log".
Definition rsd_cfg (app : bool) (crit : criterion) (cap : option nat) : config := tsd_cfg rsd_sp app crit cap false.

(* seven runs.  (1) without append, three files in second 0: a | b | c.  (2) with append, five seconds later: the newest time
   stamp in the directory (second 0) is OLDER than the clock; "c" is continued under its old name ("cd"); the clock advances,
   a rotation starts "e" in second 6.  (3) without append, started in the SAME second 6 as the last file: collision-free, "f"
   gets the next restart counter of second 6, "g" the one after it.  (4), (5) two seconds later, writers - without and with
   append - that do not write (they flush and trigger a rotation): nothing changes.  (6) with append: "g", the newest file of the
   newest second (restart-0001 of second 6), is continued ("gh").  (7) with append and the limit 0: "gh" is opened and
   exceeds the limit, the first write rotates: "i" and "j" in second 8. *)
Definition rsd_ex : list trun :=
  [ (0%Z, rsd_cfg false (CSize 100) None, [OWrite (bs "a"); OTrigger; OWrite (bs "b"); OTrigger; OWrite (bs "c")]);
    (5%Z, rsd_cfg true (CSize 100) (Some 4%nat), [OWrite (bs "d"); OTick 1; OTrigger; OWrite (bs "e")]);
    (0%Z, rsd_cfg false (CAge ADay) None, [OWrite (bs "f"); OTrigger; OWrite (bs "g")]);
    (2%Z, rsd_cfg false (CSize 1) None, [OSnap; OFlush; OTrigger]);
    (0%Z, rsd_cfg true (CSize 1) None, [OSnap; OFlush; OTrigger]);
    (0%Z, rsd_cfg true (CSize 100) (Some 2%nat), [OPlain (bs "h")]);
    (0%Z, rsd_cfg true (CSize 0) (Some 2%nat), [OPlain (bs "i"); OPlain (bs "j")]) ].

Example tsd_restarts_dir :
  snap_of (fst (run (sys0 0 0) (runs_ops_t rsd_ex)))
  = [ (bs "app_r1970-01-01_00-00-00.log", 0%N, bs "a");
      (bs "app_r1970-01-01_00-00-00.restart-0000.log", 0%N, bs "b");
      (bs "app_r1970-01-01_00-00-00.restart-0001.log", 0%N, bs "cd");
      (bs "app_r1970-01-01_00-00-06.log", 0%N, bs "e");
      (bs "app_r1970-01-01_00-00-06.restart-0000.log", 0%N, bs "f");
      (bs "app_r1970-01-01_00-00-06.restart-0001.log", 0%N, bs "gh");
      (bs "app_r1970-01-01_00-00-08.log", 0%N, bs "i");
      (bs "app_r1970-01-01_00-00-08.restart-0000.log", 0%N, bs "j") ]
  /\ runs_written_t rsd_ex = bs "abcdefghij".
Proof. split; vm_compute; reflexivity. Qed.

(* after the second run: the old file "c" was continued under its old name, although the clock showed second 5 *)
Example tsd_restarts_dir2 :
  snap_of (fst (run (sys0 0 0) (runs_ops_t (firstn 2 rsd_ex))))
  = [ (bs "app_r1970-01-01_00-00-00.log", 0%N, bs "a");
      (bs "app_r1970-01-01_00-00-00.restart-0000.log", 0%N, bs "b");
      (bs "app_r1970-01-01_00-00-00.restart-0001.log", 0%N, bs "cd");
      (bs "app_r1970-01-01_00-00-06.log", 0%N, bs "e") ].
Proof. vm_compute. reflexivity. Qed.

(* after the third run; the fourth and the fifth run leave the directory as it is *)
Example tsd_restarts_dir3 :
  snap_of (fst (run (sys0 0 0) (runs_ops_t (firstn 3 rsd_ex))))
  = [ (bs "app_r1970-01-01_00-00-00.log", 0%N, bs "a");
      (bs "app_r1970-01-01_00-00-00.restart-0000.log", 0%N, bs "b");
      (bs "app_r1970-01-01_00-00-00.restart-0001.log", 0%N, bs "cd");
      (bs "app_r1970-01-01_00-00-06.log", 0%N, bs "e");
      (bs "app_r1970-01-01_00-00-06.restart-0000.log", 0%N, bs "f");
      (bs "app_r1970-01-01_00-00-06.restart-0001.log", 0%N, bs "g") ]
  /\ snap_of (fst (run (sys0 0 0) (runs_ops_t (firstn 5 rsd_ex)))) = snap_of (fst (run (sys0 0 0) (runs_ops_t (firstn 3 rsd_ex)))).
Proof. split; vm_compute; reflexivity. Qed.

(* the hypotheses of the theorems can be met *)
Lemma rsd_cfg_tag_ok app crit cap : tag_ok (rsd_cfg app crit cap).
Proof. apply tag_free_ok. split; vm_compute; reflexivity. Qed.
Lemma rsd_cfg_probe_ok app crit cap : probe_ok (rsd_cfg app crit cap).
Proof. apply probe_free_ok. vm_compute. reflexivity. Qed.

Lemma rsd_ex_ok : Forall (run_ok_tsd rsd_sp false) rsd_ex.
Proof.
  unfold rsd_ex.
  repeat (apply Forall_cons;
          [apply run_ok_tsd_intro; split; [lia|]; split; [reflexivity|]; split; [reflexivity|];
           split; [eexists; apply tsd_cfg_ok; reflexivity|]; split; [apply rsd_cfg_tag_ok|];
           split; [repeat constructor|];
           split; [repeat (apply Forall_cons; [cbn [tick_ok]; first [exact Logic.I | lia]|]); apply Forall_nil|];
           intros _; apply rsd_cfg_probe_ok|]).
  apply Forall_nil.
Qed.

Example tsd_restarts_instance :
  exists keys files,
    (forall c, c_spec c = rsd_sp -> tsd_view c 0 (wfs (s_w (fst (run (sys0 0 0) (runs_ops_t rsd_ex))))) keys files)
    /\ concat files = bs "abcdefghij" /\ keys_ok keys /\ (forall k, In k keys -> (0 <= fst k <= 8)%Z).
Proof.
  apply (timestampsdirect_restarts rsd_sp false 0 0 rsd_ex rsd_ex_ok);
    [change (0 <= 0)%Z; lia | change (8 + 0 < sec_max)%Z; unfold sec_max; lia | vm_compute; discriminate].
Qed.

(* the keys of this history: the seconds in which the files were STARTED never decrease, positions count from 0 within each
   second *)
Example tsd_restarts_keys :
  List.map (kname (rsd_cfg false (CSize 1) None) 0) [(0%Z, 0); (0%Z, 1); (0%Z, 2); (6%Z, 0); (6%Z, 1); (6%Z, 2); (8%Z, 0); (8%Z, 1)]
  = List.map (fun x : bytes * N * bytes => fst (fst x)) (snap_of (fst (run (sys0 0 0) (runs_ops_t rsd_ex)))).
Proof. vm_compute. reflexivity. Qed.

Example tsd_restarts_keep_instance :
  exists keys1 files1 keys2 files2,
    (forall c, c_spec c = rsd_sp ->
       tsd_view c 0 (wfs (s_w (fst (run (sys0 0 0) (runs_ops_t (firstn 3 rsd_ex)))))) keys1 files1)
    /\ concat files1 = bs "abcdefg"
    /\ (forall c, c_spec c = rsd_sp -> tsd_view c 0 (wfs (s_w (fst (run (sys0 0 0) (runs_ops_t rsd_ex))))) keys2 files2)
    /\ concat files2 = bs "abcdefghij"
    /\ (files1 = [] \/ exists closed cur t mk more,
          files1 = closed ++ [cur] /\ keys2 = keys1 ++ mk /\ files2 = closed ++ (cur ++ t) :: more).
Proof.
  pose proof rsd_ex_ok as Hok. change rsd_ex with (firstn 3 rsd_ex ++ skipn 3 rsd_ex) in Hok |- *.
  destruct (timestampsdirect_restarts_keep rsd_sp false 0 0 (firstn 3 rsd_ex) (skipn 3 rsd_ex) Hok)
    as [keys1 [files1 [keys2 [files2 [V1 [F1 [V2 [F2 [_ [X _]]]]]]]]]];
    [change (0 <= 0)%Z; lia | change (8 + 0 < sec_max)%Z; unfold sec_max; lia | vm_compute; discriminate |].
  exists keys1, files1, keys2, files2. auto.
Qed.

(* runs without append only: every file of before is untouched *)
Example tsd_restarts_fresh_instance :
  exists keys1 files1 keys2 files2 mk more,
    (forall c, c_spec c = rsd_sp ->
       tsd_view c 0 (wfs (s_w (fst (run (sys0 0 0) (runs_ops_t (firstn 2 rsd_ex)))))) keys1 files1)
    /\ (forall c, c_spec c = rsd_sp ->
       tsd_view c 0 (wfs (s_w (fst (run (sys0 0 0) (runs_ops_t (firstn 4 rsd_ex)))))) keys2 files2)
    /\ keys2 = keys1 ++ mk /\ files2 = files1 ++ more.
Proof.
  assert (Hok : Forall (run_ok_tsd rsd_sp false) (firstn 4 rsd_ex)) by (apply firstn_Forall; exact rsd_ex_ok).
  change (firstn 4 rsd_ex) with (firstn 2 rsd_ex ++ firstn 2 (skipn 2 rsd_ex)) in Hok |- *.
  destruct (timestampsdirect_restarts_keep rsd_sp false 0 0 (firstn 2 rsd_ex) (firstn 2 (skipn 2 rsd_ex)) Hok)
    as [keys1 [files1 [keys2 [files2 [V1 [_ [V2 [_ [_ [_ X]]]]]]]]]];
    [change (0 <= 0)%Z; lia | change (8 + 0 < sec_max)%Z; unfold sec_max; lia | vm_compute; discriminate |].
  destruct X as [mk [more [E1 E2]]]; [repeat (apply Forall_cons; [reflexivity|]); apply Forall_nil|].
  exists keys1, files1, keys2, files2, mk, more. auto.
Qed.

(* the reader finds the files in the order in which they were written: computed, and by the theorem *)
Example tsd_restarts_reader_computed :
  family_in_order (rsd_cfg false (CSize 1) None) (snap_of (fst (run (sys0 0 0) (runs_ops_t rsd_ex))))
  = [bs "a"; bs "b"; bs "cd"; bs "e"; bs "f"; bs "gh"; bs "i"; bs "j"].
Proof. vm_compute. reflexivity. Qed.

Example tsd_restarts_reader_instance :
  concat (family_in_order (rsd_cfg false (CSize 1) None) (snap_of (fst (run (sys0 0 0) (runs_ops_t rsd_ex))))) = bs "abcdefghij".
Proof.
  apply (timestampsdirect_restarts_reader rsd_sp false 0 0 rsd_ex (rsd_cfg false (CSize 1) None) (CSize 1) rsd_ex_ok);
    [change (0 <= 0)%Z; lia | change (8 + 0 < sec_max)%Z; unfold sec_max; lia | vm_compute; discriminate | reflexivity
     | apply tsd_cfg_ok; reflexivity | vm_compute; reflexivity].
Qed.

(* ------------------------------------------------------------------ use_utc with a zone offset; probe_ok is needed *)
(* use_utc, zone offset one hour, append.  The first writer (no append) names its files by UTC: "a", "b" in <03:46:40>.  The
   second writer, with append, lists the directory, reads the newest time stamp back - as UTC, the way it was written - and
   continues "b"; the rotation names "d" by the clock, <03:46:45>, which the third writer continues.
   (THE FORMER FINDING: the code read the time stamp back as LOCAL time, i.e. as the instant one hour earlier, wrote this instant
   as UTC again, did not find "b" but started <02:46:40> for "c", and likewise <02:46:45> for "e": a reader that goes by the
   names got c, e, a, b, d, f - the records were REORDERED; with a negative offset a, b, d, f, c, e.  Repaired in the code,
   the model follows the repaired code.) *)
Definition utc_app_ex (utc : bool) : list trun :=
  [ (0%Z, tsd_cfg rsd_sp false (CSize 100) None utc, [OWrite (bs "a"); OTrigger; OWrite (bs "b")]);
    (5%Z, tsd_cfg rsd_sp true (CSize 100) None utc, [OWrite (bs "c"); OTrigger; OWrite (bs "d")]);
    (5%Z, tsd_cfg rsd_sp true (CSize 100) None utc, [OWrite (bs "e"); OTrigger; OWrite (bs "f")]) ].

Example tsd_utc_append_fine :
  snap_of (fst (run (sys0 100000 3600) (runs_ops_t (utc_app_ex true))))
  = [ (bs "app_r1970-01-02_03-46-40.log", 0%N, bs "a");
      (bs "app_r1970-01-02_03-46-40.restart-0000.log", 0%N, bs "bc");
      (bs "app_r1970-01-02_03-46-45.log", 0%N, bs "de");
      (bs "app_r1970-01-02_03-46-50.log", 0%N, bs "f") ]
  /\ family_in_order (tsd_cfg rsd_sp true (CSize 100) None true) (snap_of (fst (run (sys0 100000 3600) (runs_ops_t (utc_app_ex true)))))
     = [bs "a"; bs "bc"; bs "de"; bs "f"]
  /\ runs_written_t (utc_app_ex true) = bs "abcdef".
Proof. repeat split; vm_compute; reflexivity. Qed.

(* the same with a negative offset *)
Example tsd_utc_append_fine_west :
  family_in_order (tsd_cfg rsd_sp true (CSize 100) None true) (snap_of (fst (run (sys0 100000 (-3600)) (runs_ops_t (utc_app_ex true)))))
  = [bs "a"; bs "bc"; bs "de"; bs "f"].
Proof. vm_compute. reflexivity. Qed.

(* the same history with local time stamps (use_utc off), or with use_utc and the offset 0 *)
Example tsd_local_append_fine :
  snap_of (fst (run (sys0 100000 3600) (runs_ops_t (utc_app_ex false))))
  = [ (bs "app_r1970-01-02_04-46-40.log", 0%N, bs "a");
      (bs "app_r1970-01-02_04-46-40.restart-0000.log", 0%N, bs "bc");
      (bs "app_r1970-01-02_04-46-45.log", 0%N, bs "de");
      (bs "app_r1970-01-02_04-46-50.log", 0%N, bs "f") ]
  /\ List.map snd (snap_of (fst (run (sys0 100000 0) (runs_ops_t (utc_app_ex true))))) = [bs "a"; bs "bc"; bs "de"; bs "f"].
Proof. split; vm_compute; reflexivity. Qed.

Lemma utc_app_ex_ok utc : Forall (run_ok_tsd rsd_sp utc) (utc_app_ex utc).
Proof.
  unfold utc_app_ex.
  repeat (apply Forall_cons;
          [apply run_ok_tsd_intro; split; [lia|]; split; [reflexivity|]; split; [reflexivity|];
           split; [eexists; apply tsd_cfg_ok; reflexivity|]; split; [apply tag_free_ok; split; vm_compute; reflexivity|];
           split; [repeat constructor|];
           split; [repeat (apply Forall_cons; [cbn [tick_ok]; first [exact Logic.I | lia]|]); apply Forall_nil|];
           intros _; apply probe_free_ok; vm_compute; reflexivity|]).
  apply Forall_nil.
Qed.

Example tsd_local_append_instance :
  exists keys files,
    (forall c, c_spec c = rsd_sp ->
       tsd_view c 3600 (wfs (s_w (fst (run (sys0 100000 3600) (runs_ops_t (utc_app_ex false)))))) keys files)
    /\ concat files = bs "abcdef" /\ keys_ok keys.
Proof.
  destruct (timestampsdirect_restarts rsd_sp false 100000 3600 (utc_app_ex false) (utc_app_ex_ok false))
    as [keys [files [V [F [K _]]]]];
    [change (0 <= 103600)%Z; lia | change (100000 + 10 + 3600 < sec_max)%Z; unfold sec_max; lia | vm_compute; discriminate |].
  exists keys, files. auto.
Qed.

Example tsd_utc_append_instance :
  exists keys files,
    (forall c, c_spec c = rsd_sp ->
       tsd_view c 0 (wfs (s_w (fst (run (sys0 100000 3600) (runs_ops_t (utc_app_ex true)))))) keys files)
    /\ concat files = bs "abcdef" /\ keys_ok keys.
Proof.
  destruct (timestampsdirect_restarts rsd_sp true 100000 3600 (utc_app_ex true) (utc_app_ex_ok true))
    as [keys [files [V [F [K _]]]]];
    [change (0 <= 100000)%Z; lia | change (100000 + 10 + 0 < sec_max)%Z; unfold sec_max; lia | vm_compute; discriminate |].
  exists keys, files. auto.
Qed.

(* without append use_utc and an offset are no problem (the directory is not read for time stamps) *)
Example tsd_utc_no_append_dir :
  snap_of (fst (run (sys0 100000 3600) (runs_ops_t
     [ (0%Z, tsd_cfg rsd_sp false (CSize 100) None true, [OWrite (bs "a"); OTrigger; OWrite (bs "b")]);
       (0%Z, tsd_cfg rsd_sp false (CSize 100) None true, [OWrite (bs "c")]) ])))
  = [ (bs "app_r1970-01-02_03-46-40.log", 0%N, bs "a");
      (bs "app_r1970-01-02_03-46-40.restart-0000.log", 0%N, bs "b");
      (bs "app_r1970-01-02_03-46-40.restart-0001.log", 0%N, bs "c") ].
Proof. vm_compute. reflexivity. Qed.

(* probe_ok: a basename that contains "rXXXXX".  The position of the infix is taken from the first occurrence of "rXXXXX" in
   a name built with this infix: here position 0 instead of 7; the 20 bytes from there are no time stamp, so the appending
   writer falls back to the clock: "b" is NOT continued, "c" starts the file of second 5.  (Harmless: nothing is lost, the
   order is kept; a later appending writer in the same second continues "d".) *)
Definition probe_sp : file_spec := {| fbase := bs "rXXXXX"; fdisc := None; fts := false; fsfx := Some (bs "log") |}.
Example tsd_probe_in_basename :
  snap_of (fst (run (sys0 0 0) (runs_ops_t
     [ (0%Z, tsd_cfg probe_sp false (CSize 100) None false, [OWrite (bs "a"); OTrigger; OWrite (bs "b")]);
       (5%Z, tsd_cfg probe_sp true (CSize 100) None false, [OWrite (bs "c"); OTrigger; OWrite (bs "d")]);
       (0%Z, tsd_cfg probe_sp true (CSize 100) None false, [OWrite (bs "e")]) ])))
  = [ (bs "rXXXXX_r1970-01-01_00-00-00.log", 0%N, bs "a");
      (bs "rXXXXX_r1970-01-01_00-00-00.restart-0000.log", 0%N, bs "b");
      (bs "rXXXXX_r1970-01-01_00-00-05.log", 0%N, bs "c");
      (bs "rXXXXX_r1970-01-01_00-00-05.restart-0000.log", 0%N, bs "de") ]
  /\ ~ probe_ok (tsd_cfg probe_sp true (CSize 100) None false).
Proof. split; [vm_compute; reflexivity|]. intros H. vm_compute in H. discriminate. Qed.

Print Assumptions timestampsdirect_restarts.
Print Assumptions timestampsdirect_restarts_keep.
