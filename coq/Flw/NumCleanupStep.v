(* Numbers naming with cleanup, part 2: one run of the cleanup (cleanup_impl) on a directory of the shape
   "rCURRENT, plain files r<i> for mid <= i < L, archives r<i>.gz for lo <= i < mid":
   the newest n files stay plain, the next m files are (or become) archives with the same content, the rest is removed:
   the new shape is  lo' = max lo (L - (n+m)),  mid' = max mid (L - n).  rCURRENT is not touched.
   Proved for closed files named by any function nmf of the index (gdir, gcleanup); cleanup_numbers is the instance
   nmf = rname c. *)
Require Import FL.Base.Bytes FL.Base.BytesFacts FL.Base.PathName FL.Fs.Fs FL.Fs.FsFacts FL.Names.FileSpec FL.Flw.Model
  FL.Flw.ModelFacts FL.Flw.NumInv FL.Flw.NumListing FL.Flw.CleanupFacts FL.Flw.NumCleanupNames.
From Coq Require Import ZifyN ZifyNat ZifyBool.
Open Scope nat_scope.

(* ------------------------------------------------------------------ no name is entered twice in the directory *)
Definition nodup_names (f : fs) : Prop := NoDup (dir_names f).

Lemma lookup_none_notin f a : lookup f a = None -> ~ In a (dir_names f).
Proof. intros H I. apply dir_names_lookup in I. destruct I as [j E]. congruence. Qed.

Lemma map_fst_filter (p : bytes -> bool) (l : list (bytes * nat)) :
  map fst (filter (fun q => p (fst q)) l) = filter p (map fst l).
Proof. induction l as [|[a i] l IH]; cbn [filter map fst]; [reflexivity|]. destruct (p a); cbn [map fst]; rewrite IH; reflexivity. Qed.

Lemma nd_create f a gz now : lookup f a = None -> nodup_names f -> nodup_names (fst (create_file f a gz now)).
Proof. intros H N. unfold nodup_names, dir_names, create_file. cbn [fst names map]. constructor; [apply lookup_none_notin; exact H | exact N]. Qed.
Lemma nd_open_trunc f a gz now : nodup_names f -> nodup_names (fst (open_trunc f a gz now)).
Proof. intros N. unfold open_trunc. destruct (lookup f a) eqn:E; [exact N | apply nd_create; assumption]. Qed.
Lemma nd_open_append f a now : nodup_names f -> nodup_names (fst (open_append f a now)).
Proof. intros N. unfold open_append. destruct (lookup f a) eqn:E; [exact N | apply nd_create; assumption]. Qed.
Lemma nd_unlink f a : nodup_names f -> nodup_names (unlink f a).
Proof.
  intros N. unfold nodup_names, dir_names, unlink. cbn [names].
  rewrite (map_fst_filter (fun x => negb (beq x a))). apply NoDup_filter. exact N.
Qed.
Lemma nd_rename f a b f' : rename f a b = Some f' -> nodup_names f -> nodup_names f'.
Proof.
  unfold rename. destruct (lookup f a) as [i|]; [|discriminate]. intros E N. injection E as <-.
  unfold nodup_names, dir_names. cbn [names map fst].
  rewrite (map_fst_filter (fun x => negb (beq x a) && negb (beq x b))). constructor.
  - intros I. apply filter_In in I. destruct I as [_ I]. rewrite beq_refl, andb_false_r in I. discriminate.
  - apply NoDup_filter. exact N.
Qed.
Lemma nd_set_gz f i st d : nodup_names f -> nodup_names (set_gz f i st d).
Proof. intros N. exact N. Qed.
Lemma nd_append f i b : nodup_names f -> nodup_names (append_ino f i b).
Proof. intros N. exact N. Qed.

Lemma tick_wfs w : wfs (snd (tick w)) = wfs w.
Proof. unfold tick. destruct (wfaults w); reflexivity. Qed.
Lemma effect_cases w g : wfs (effect w g) = g (wfs w) \/ wfs (effect w g) = wfs w.
Proof. unfold effect. destruct (kill_step w); [left | right]; reflexivity. Qed.
(* whatever the kill counter does: a property of the file system that the change g keeps holds after the effect *)
Lemma effect_inv (P : fs -> Prop) w g : P (wfs w) -> (P (wfs w) -> P (g (wfs w))) -> P (wfs (effect w g)).
Proof. intros H G. destruct (effect_cases w g) as [E|E]; rewrite E; auto. Qed.

Lemma p_remove_nd w a : nodup_names (wfs w) -> nodup_names (wfs (snd (p_remove w a))).
Proof.
  intros N. unfold p_remove. pose proof (tick_wfs w) as T. destruct (tick w) as [flt w1]. cbn [snd] in T. rewrite <- T in N.
  destruct flt; [exact N|]. destruct (lookup (wfs w1) a); [|exact N]. cbn [snd]. apply (effect_inv nodup_names); [exact N|]. apply nd_unlink.
Qed.

Lemma compress_file_nd w n : nodup_names (wfs w) -> nodup_names (wfs (snd (compress_file w n))).
Proof.
  intros N. unfold compress_file.
  pose proof (tick_wfs w) as T1. destruct (tick w) as [flt1 w1]. cbn [snd] in T1. rewrite <- T1 in N.
  destruct flt1; [exact N|].
  destruct (match file_of (wfs w1) (gz_name n) with Some fl => fdir fl | None => false end); [exact N|].
  set (ino := snd (open_trunc (wfs w1) (gz_name n) 2%N (wnow w1))).
  assert (N2 : nodup_names (wfs (effect w1 (fun f => fst (open_trunc f (gz_name n) 2%N (wnow w1)))))).
  { apply (effect_inv nodup_names); [exact N|]. apply nd_open_trunc. }
  set (w2 := effect w1 (fun f => fst (open_trunc f (gz_name n) 2%N (wnow w1)))) in *.
  pose proof (tick_wfs w2) as T2. destruct (tick w2) as [flt2 w3]. cbn [snd] in T2. rewrite <- T2 in N2.
  assert (D : forall w' d, nodup_names (wfs w') -> nodup_names (wfs (effect w' (fun f => set_gz f ino 1%N d)))).
  { intros w' d N'. apply (effect_inv nodup_names); [exact N'|]. apply nd_set_gz. }
  destruct flt2; [cbn [snd]; apply D; exact N2|].
  destruct (lookup (wfs w3) n) as [src|]; [|cbn [snd]; apply D; exact N2].
  pose proof (tick_wfs w3) as T3. destruct (tick w3) as [flt3 w4]. cbn [snd] in T3. rewrite <- T3 in N2.
  destruct flt3; [cbn [snd]; apply D; exact N2|].
  assert (N5 : nodup_names (wfs (effect w4 (fun f => f)))) by (apply (effect_inv nodup_names); auto).
  set (w5 := effect w4 (fun f => f)) in *.
  pose proof (tick_wfs w5) as T5. destruct (tick w5) as [flt4 w6]. cbn [snd] in T5. rewrite <- T5 in N5.
  destruct flt4; [cbn [snd]; apply D; exact N5|].
  apply p_remove_nd. apply D. exact N5.
Qed.

Lemma cleanup_loop_nd ll total cur : forall files w idx,
  nodup_names (wfs w) -> nodup_names (wfs (snd (cleanup_loop w files idx ll total cur))).
Proof.
  induction files as [|n r IH]; intros w idx N; [exact N|].
  rewrite (cleanup_loop_cons_skip cur _ (fun _ => eq_refl)). destruct (act_skip _ ll total idx n).
  - apply IH. exact N.
  - pose proof (compress_file_nd w n N) as N1. destruct (compress_file w n) as [ok w1]. cbn [snd] in N1.
    destruct ok; [apply IH; exact N1 | exact N1].
  - pose proof (p_remove_nd w n N) as N1. destruct (p_remove w n) as [ok w1]. cbn [snd] in N1.
    destruct ok; [apply IH; exact N1 | exact N1].
Qed.

(* ------------------------------------------------------------------ the directory with contents *)
(* rotated files named by nmf (NumCleanupNames.v): plain files nmf i for mid <= i < L, archives gzf nmf i for lo <= i < mid,
   possibly cn, nothing else; `closed` lists the contents by index *)
Record gdir (nmf : nat -> bytes) (cn : bytes) (f : fs) (closed : list bytes) (lo mid : nat) : Prop := {
  gd_le : lo <= mid <= length closed;
  gd_nodup : nodup_names f;
  gd_plain : forall i, mid <= i < length closed ->
      exists j, lookup f (nmf i) = Some j /\ plain (inode f j) /\ content f j = nth i closed [];
  gd_arch : forall i, lo <= i < mid ->
      exists j, lookup f (gzf nmf i) = Some j /\ fdata (inode f j) = nth i closed [] /\ fgz (inode f j) = 1%N /\ fdir (inode f j) = false;
  gd_only : forall n j, lookup f n = Some j ->
      n = cn \/ (exists i, mid <= i < length closed /\ n = nmf i) \/ (exists i, lo <= i < mid /\ n = gzf nmf i) }.

(* the limits of a cleanup strategy: log files kept as they are, files kept as archives *)
Definition klim (k : cleanup) : option (nat * nat) :=
  match k with KNever => None | KLog a => Some (a, 0) | KGz b => Some (0, b) | KLogGz a b => Some (a, b) end.

Definition bytes_eq_dec : forall a b : bytes, {a = b} + {a <> b} := list_eq_dec N.eq_dec.

Definition cleanup_body (w : world) (files : list bytes) (n m : nat) (cur : option bytes) : res unit * world :=
  let '(ok0, w1', files') := remove_redundant w (redundant_gz files) files in
  if negb ok0 then (Err, w1') else
  let '(ok, w2) := cleanup_loop w1' files' 0 n (n + m) cur in ((if ok then Ok tt else Err), w2).

Theorem gcleanup nmf cn w n m closed lo mid :
  gnames nmf cn (length closed) -> quiet w -> fs_wf (wfs w) -> gdir nmf cn (wfs w) closed lo mid ->
  exists w', cleanup_body w (glisting nmf lo mid (length closed)) n m None = (Ok tt, w') /\ same_env w w' /\ fs_wf (wfs w')
    /\ gdir nmf cn (wfs w') closed (Nat.max lo (length closed - (n + m))) (Nat.max mid (length closed - n))
    /\ same_at (wfs w) (wfs w') cn
    /\ (forall i, Nat.max mid (length closed - n) <= i < length closed -> same_at (wfs w) (wfs w') (nmf i)).
Proof.
  intros GN Q W KD. set (L := length closed) in *. set (f := wfs w) in *.
  pose proof (gd_le _ _ _ _ _ _ KD) as Hle. fold L in Hle.
  pose proof KD as [_ Hnd Hp Ha Hon]. fold L in Hp, Hon.
  unfold cleanup_body.
  rewrite (glisting_no_redundant nmf cn L GN lo mid Hle). cbn [remove_redundant negb].
  set (files := glisting nmf lo mid L).
  assert (Ex : forall i, lo <= i < L -> lookup f (gentry nmf mid i) <> None).
  { intros i Hi. destruct (Nat.le_gt_cases mid i) as [H|H].
    - rewrite gentry_plain by exact H. destruct (Hp i ltac:(lia)) as (j & Lj & _). congruence.
    - rewrite gentry_arch by exact H. destruct (Ha i ltac:(lia)) as (j & Lj & _). congruence. }
  assert (NoG : forall i, mid <= i < L -> lookup f (gzf nmf i) = None).
  { intros i Hi. destruct (lookup f (gzf nmf i)) as [j|] eqn:E; [exfalso | reflexivity].
    destruct (Hon _ _ E) as [X|[(i' & Hi' & X)|(i' & Hi' & X)]].
    - exact (proj2 (gn_cn _ _ _ GN i ltac:(lia)) X).
    - apply (gzf_not_nmf _ _ _ GN) in X; [exact X | lia | lia].
    - apply (gzf_inj _ _ _ GN) in X; lia. }
  assert (Pos : forall k x, nth_error files k = Some x -> k < L - lo /\ x = gentry nmf mid (L - 1 - k)).
  { intros k0 x. apply glisting_nth_inv. exact Hle. }
  assert (Zone : forall k x, nth_error files k = Some x -> ext_is x gz_sfx = false ->
                 mid <= L - 1 - k /\ x = nmf (L - 1 - k)).
  { intros k0 x Hk0 He. destruct (Pos _ _ Hk0) as [Hk1 ->]. rewrite (gentry_ext nmf cn L GN) in He by lia.
    destruct (Nat.leb_spec mid (L - 1 - k0)); [|discriminate]. split; [assumption | apply gentry_plain; assumption]. }
  destruct (cleanup_loop_spec w files 0 n (n + m) Q W (glisting_nodup nmf cn L GN lo mid Hle)) as (w' & E & S & W' & O & Fr).
  { intros k0 x Hk0 _. destruct (Pos _ _ Hk0) as [Hk1 ->]. apply Ex. lia. }
  { intros k0 x Hk0 _ He Hin. destruct (Zone _ _ Hk0 He) as [Hm ->]. destruct (Pos _ _ Hk0) as [Hk1 _].
    fold (gzf nmf (L - 1 - k0)) in Hin.
    apply glisting_in in Hin; [|exact Hle]. destruct Hin as [(j & Hj & X)|(j & Hj & X)].
    - apply (gzf_not_nmf _ _ _ GN) in X; [exact X | lia | lia].
    - apply (gzf_inj _ _ _ GN) in X; lia. }
  { intros k0 x Hk0 _ He. destruct (Zone _ _ Hk0 He) as [Hm ->]. destruct (Pos _ _ Hk0) as [Hk1 _].
    apply not_dir_missing. apply NoG. lia. }
  cbn [Nat.add] in O. fold f in O, Fr.
  exists w'. rewrite E. split; [reflexivity|]. split; [exact S|]. split; [exact W'|].
  set (f' := wfs w') in *.
  assert (Of : forall i, lo <= i < L ->
             (n + m <= L - 1 - i -> lookup f' (gentry nmf mid i) = None)
             /\ (L - 1 - i < n + m -> L - 1 - i < n \/ ext_is (gentry nmf mid i) gz_sfx = true -> same_at f f' (gentry nmf mid i))
             /\ (n <= L - 1 - i < n + m -> ext_is (gentry nmf mid i) gz_sfx = false -> archived f f' (gentry nmf mid i))).
  { intros i Hi. apply (O (L - 1 - i)). apply glisting_nth_of; assumption. }
  assert (NDf' : nodup_names f').
  { unfold f'. replace w' with (snd (cleanup_loop w files 0 n (n + m) None)) by (rewrite E; reflexivity).
    apply cleanup_loop_nd. exact Hnd. }
  set (made := map gz_name (filter not_gz (zone_part n (n + m) files))).
  assert (Made : forall x, In x made <-> exists i, mid <= i < L /\ n <= L - 1 - i < n + m /\ x = gzf nmf i).
  { intros x. unfold made. rewrite in_map_iff. split.
    - intros (y & <- & Hy). apply filter_In in Hy. destruct Hy as [Hy G]. apply In_zone_nth in Hy.
      destruct Hy as (k0 & Hk0 & Ek0). unfold not_gz in G. apply negb_true_iff in G.
      destruct (Zone _ _ Ek0 G) as [Hm ->]. destruct (Pos _ _ Ek0) as [Hk1 _].
      exists (L - 1 - k0). split; [lia|]. split; [|reflexivity]. replace (L - 1 - (L - 1 - k0)) with k0 by lia. lia.
    - intros (i & Hi & Hz & ->). exists (nmf i). split; [reflexivity|]. apply filter_In. split.
      + apply (nth_In_zone _ _ _ (L - 1 - i)); [|lia]. unfold files. rewrite glisting_nth_of by (auto; lia).
        rewrite gentry_plain by lia. reflexivity.
      + unfold not_gz. rewrite (gn_ng _ _ _ GN) by lia. reflexivity. }
  assert (Fr' : forall x, ~ In x files -> ~ In x made -> same_at f f' x).
  { intros x H1 H2. apply Fr; [exact H1|]. intros k0 y Hk0 Hz He ->. apply H2. destruct (Zone _ _ Hk0 He) as [Hm ->].
    destruct (Pos _ _ Hk0) as [Hk1 _]. apply Made. exists (L - 1 - k0). split; [lia|]. split; [|reflexivity].
    replace (L - 1 - (L - 1 - k0)) with k0 by lia. lia. }
  split; [|split].
  - constructor.
    + fold L. lia.
    + exact NDf'.
    + fold L. intros i Hi. destruct (Of i ltac:(lia)) as (_ & K & _). rewrite gentry_plain in K by lia.
      destruct (Hp i ltac:(lia)) as (j & Lj & Pj & Cj).
      assert (K1 : L - 1 - i < n + m) by lia. assert (K2 : L - 1 - i < n) by lia.
      destruct (same_at_content _ _ _ _ (K K1 (or_introl K2)) Lj) as [Lj' Ij'].
      exists j. split; [exact Lj'|]. unfold content. fold f'. rewrite Ij'. split; [exact Pj | exact Cj].
    + fold L. intros i Hi. destruct (Nat.lt_ge_cases i mid) as [Hm|Hm].
      * destruct (Of i ltac:(lia)) as (_ & K & _). rewrite gentry_arch in K by lia.
        destruct (Ha i ltac:(lia)) as (j & Lj & Dj & Gj & Fj).
        assert (K1 : L - 1 - i < n + m) by lia.
        destruct (same_at_content _ _ _ _ (K K1 (or_intror (gzf_is_gz _ _ _ GN i ltac:(lia)))) Lj) as [Lj' Ij'].
        exists j. fold f'. rewrite Ij'. auto.
      * destruct (Of i ltac:(lia)) as (_ & _ & Z). rewrite gentry_plain in Z by lia.
        assert (K1 : n <= L - 1 - i < n + m) by lia.
        destruct (Z K1 (gn_ng _ _ _ GN i ltac:(lia))) as (i0 & j & Li & Ln & Lg & D & G & Dr).
        destruct (Hp i ltac:(lia)) as (j0 & Lj0 & _ & Cj0). rewrite Li in Lj0. injection Lj0 as <-.
        exists j. split; [exact Lg|]. split; [rewrite D; exact Cj0|]. auto.
    + fold L. intros x j Lx. destruct (in_dec bytes_eq_dec x files) as [Hin|Hnin].
      * apply In_nth_error in Hin. destruct Hin as [k0 Hk0]. destruct (Pos _ _ Hk0) as [Hk1 ->].
        set (i := L - 1 - k0) in *. assert (Hi : lo <= i < L) by (unfold i; lia).
        destruct (Of i Hi) as (R & K & Z). fold f' in Lx.
        destruct (Nat.le_gt_cases (n + m) (L - 1 - i)) as [H1|H1]; [rewrite (R H1) in Lx; discriminate|].
        destruct (Nat.le_gt_cases mid i) as [H2|H2].
        -- rewrite gentry_plain in * by exact H2. destruct (Nat.le_gt_cases n (L - 1 - i)) as [H3|H3].
           ++ assert (K1 : n <= L - 1 - i < n + m) by lia.
              destruct (Z K1 (gn_ng _ _ _ GN i ltac:(lia))) as (_ & _ & _ & Ln & _). rewrite Ln in Lx. discriminate.
           ++ right. left. exists i. split; [lia | reflexivity].
        -- rewrite gentry_arch in * by exact H2. right. right. exists i. split; [lia | reflexivity].
      * destruct (in_dec bytes_eq_dec x made) as [Hm|Hm].
        -- apply Made in Hm. destruct Hm as (i & Hi & Hz & ->). right. right. exists i. split; [lia | reflexivity].
        -- destruct (Fr' x Hnin Hm) as [Lx' _]. fold f' in Lx. rewrite Lx' in Lx.
           destruct (Hon _ _ Lx) as [->|[(i & Hi & ->)|(i & Hi & ->)]]; [left; reflexivity | exfalso | exfalso];
             apply Hnin, glisting_in; auto; [left | right]; exists i; auto.
  - apply Fr'.
    + intros Hin. apply glisting_in in Hin; [|exact Hle]. destruct Hin as [(i & Hi & X)|(i & Hi & X)].
      * symmetry in X. exact (proj1 (gn_cn _ _ _ GN i ltac:(lia)) X).
      * symmetry in X. exact (proj2 (gn_cn _ _ _ GN i ltac:(lia)) X).
    + intros Hin. apply Made in Hin. destruct Hin as (i & Hi & _ & X). symmetry in X. exact (proj2 (gn_cn _ _ _ GN i ltac:(lia)) X).
  - fold L. intros i Hi. destruct (Of i ltac:(lia)) as (_ & K & _). rewrite gentry_plain in K by lia.
    apply K; [lia | left; lia].
Qed.
(* The same with the current output file handed over (a DIRECT naming: cur = Some (the newest named file), first limit at
   least 1): the file is at position 0 of the listing - if it is listed at all -, where it is kept anyway; that the loop
   skips it makes no difference. *)
Lemma cleanup_body_cur_newest nmf cn w n m L lo mid :
  gnames nmf cn L -> lo <= mid <= L -> 1 <= n ->
  cleanup_body w (glisting nmf lo mid L) n m (Some (nmf (L - 1))) = cleanup_body w (glisting nmf lo mid L) n m None.
Proof.
  intros GN Hle Hn. unfold cleanup_body.
  rewrite (glisting_no_redundant nmf cn L GN lo mid Hle). cbn [remove_redundant negb].
  rewrite (cleanup_loop_cur_kept n (n + m) (nmf (L - 1))); [reflexivity|].
  intros k0 Hk0. cbn [Nat.add]. apply glisting_nth_inv in Hk0; [|exact Hle]. destruct Hk0 as [Hk1 Ee].
  assert (k0 = 0).
  { unfold gentry in Ee. destruct (mid <=? L - 1 - k0).
    - apply (gn_inj _ _ _ GN) in Ee; lia.
    - exfalso. symmetry in Ee. apply (gzf_not_nmf _ _ _ GN) in Ee; [exact Ee | lia | lia]. }
  subst k0. apply act_keep. split; [lia | left; lia].
Qed.

Theorem gcleanup_d nmf cn w n m closed lo mid :
  gnames nmf cn (length closed) -> quiet w -> fs_wf (wfs w) -> gdir nmf cn (wfs w) closed lo mid -> 1 <= n ->
  exists w', cleanup_body w (glisting nmf lo mid (length closed)) n m (Some (nmf (length closed - 1))) = (Ok tt, w')
    /\ same_env w w' /\ fs_wf (wfs w')
    /\ gdir nmf cn (wfs w') closed (Nat.max lo (length closed - (n + m))) (Nat.max mid (length closed - n))
    /\ same_at (wfs w) (wfs w') cn
    /\ (forall i, Nat.max mid (length closed - n) <= i < length closed -> same_at (wfs w) (wfs w') (nmf i)).
Proof.
  intros GN Q W KD Hn. rewrite (cleanup_body_cur_newest nmf cn w n m (length closed) lo mid GN (gd_le _ _ _ _ _ _ KD) Hn).
  apply gcleanup; assumption.
Qed.

Lemma cleanup_impl_klim c w k flt cur :
  cleanup_impl c w k flt cur =
  match klim k with
  | None => (Ok tt, w)
  | Some (n, m) =>
    let '(fl, w1) := tick w in
    if fl then (Err, w1) else
    match list_log_gz (woff w1) (c_spec c) (fixed_of c w1) (wfs w1) flt with
    | None => (Panic, w1)
    | Some files => cleanup_body w1 files (if match cur with Some _ => true | None => false end && Nat.eqb n 0 then 1 else n) m cur
    end
  end.
Proof. destruct k; reflexivity. Qed.

Lemma cleanup_impl_unfold c w k flt n m : klim k = Some (n, m) -> quiet w ->
  cleanup_impl c w k flt None =
  match list_log_gz (woff w) (c_spec c) (fixed_of c w) (wfs w) flt with
  | None => (Panic, w)
  | Some files =>
    let '(ok0, w1', files') := remove_redundant w (redundant_gz files) files in
    if negb ok0 then (Err, w1') else
    let '(ok, w2) := cleanup_loop w1' files' 0 n (n + m) None in ((if ok then Ok tt else Err), w2)
  end.
Proof. intros H Q. rewrite cleanup_impl_klim, H, (tick_quiet w Q). reflexivity. Qed.

Record kdir (c : config) (f : fs) (closed : list bytes) (lo mid : nat) : Prop := {
  kd_le : lo <= mid <= length closed;
  kd_nodup : nodup_names f;
  kd_plain : forall i, mid <= i < length closed ->
      exists j, lookup f (rname c i) = Some j /\ plain (inode f j) /\ content f j = nth i closed [];
  kd_arch : forall i, lo <= i < mid ->
      exists j, lookup f (gname c i) = Some j /\ fdata (inode f j) = nth i closed [] /\ fgz (inode f j) = 1%N /\ fdir (inode f j) = false;
  kd_only : forall n j, lookup f n = Some j ->
      n = cname c \/ (exists i, mid <= i < length closed /\ n = rname c i) \/ (exists i, lo <= i < mid /\ n = gname c i) }.

Lemma kdir_gdir c f closed lo mid : kdir c f closed lo mid <-> gdir (rname c) (cname c) f closed lo mid.
Proof. split; intros [A B C D E]; constructor; assumption. Qed.

Lemma kdir_shape c f closed lo mid : kdir c f closed lo mid -> dir_shape c f lo mid (length closed).
Proof.
  intros [Hle Hn Hp Ha Ho]. constructor; auto.
  - intros i Hi. destruct (Hp i Hi) as (j & Lj & [_ Dj] & _). eauto.
  - intros i Hi. destruct (Ha i Hi) as (j & Lj & _ & _ & Dj). eauto.
Qed.

Lemma listing_nth_inv c lo mid L k x : lo <= mid <= L ->
  nth_error (listing c lo mid L) k = Some x -> k < L - lo /\ x = entry c mid (L - 1 - k).
Proof. exact (glisting_nth_inv (rname c) lo mid L k x). Qed.

Lemma entry_plain c mid i : mid <= i -> entry c mid i = rname c i.
Proof. exact (gentry_plain (rname c) mid i). Qed.
Lemma entry_arch c mid i : i < mid -> entry c mid i = gname c i.
Proof. exact (gentry_arch (rname c) mid i). Qed.

Theorem cleanup_numbers c w k n m closed lo mid :
  fts (c_spec c) = false -> sfx_ok (c_spec c) ->
  klim k = Some (n, m) ->
  quiet w -> fs_wf (wfs w) -> kdir c (wfs w) closed lo mid ->
  exists w', cleanup_impl c w k IFNum None = (Ok tt, w') /\ same_env w w' /\ fs_wf (wfs w')
    /\ kdir c (wfs w') closed (Nat.max lo (length closed - (n + m))) (Nat.max mid (length closed - n))
    /\ same_at (wfs w) (wfs w') (cname c).
Proof.
  intros Hts Hsfx Hk Q W KD.
  rewrite (cleanup_impl_unfold c w k IFNum n m Hk Q), (fixed_of_fixed0 c w Hts),
    (list_log_gz_numbers c (wfs w) (woff w) lo mid (length closed) Hsfx (kdir_shape _ _ _ _ _ KD)).
  destruct (gcleanup (rname c) (cname c) w n m closed lo mid (gnames_numbers c _ Hsfx) Q W (proj1 (kdir_gdir _ _ _ _ _) KD))
    as (w' & E & S & W' & KD' & Cn & _).
  exists w'. split; [exact E|]. split; [exact S|]. split; [exact W'|]. split; [apply kdir_gdir; exact KD' | exact Cn].
Qed.
Print Assumptions cleanup_numbers.
