(* Filtering commutes with the insertion sorts of the model: entries that a filter rejects have no influence on
   what the filter lets through, wherever they stand in the directory list. *)
Require Import FL.Base.Bytes FL.Base.BytesFacts FL.Fs.Fs FL.Names.FileSpec FL.Names.SortFacts.
From Coq Require Import Sorting.Sorted.
Open Scope nat_scope.

Section SortFilter.
Variable le : bytes -> bytes -> bool.
Hypothesis le_total : forall x y, le x y = true \/ le y x = true.
Hypothesis le_trans : forall x y z, le x y = true -> le y z = true -> le x z = true.

Definition le_rel (x y : bytes) : Prop := le x y = true.
Definition isort (l : list bytes) : list bytes := fold_right (insert_by le) [] l.

Lemma insert_by_in_iff x l y : In y (insert_by le x l) <-> y = x \/ In y l.
Proof.
  induction l as [|z l IH]; cbn [insert_by]; [cbn; intuition|]. destruct (le x z); cbn [In]; [intuition|]. rewrite IH. intuition.
Qed.
Lemma isort_in l y : In y (isort l) <-> In y l.
Proof.
  induction l as [|x l IH]; cbn [isort fold_right]; [tauto|]. fold (isort l). rewrite insert_by_in_iff, IH. cbn [In]. intuition.
Qed.

Lemma insert_by_ssorted x l : StronglySorted le_rel l -> StronglySorted le_rel (insert_by le x l).
Proof.
  induction l as [|y l IH]; intros S; cbn [insert_by].
  - constructor; [constructor | constructor].
  - inversion S as [|y' l' Sl Hy]; subst. destruct (le x y) eqn:E.
    + constructor; [exact S|]. constructor; [exact E|].
      apply Forall_forall. intros z Hz. rewrite Forall_forall in Hy. exact (le_trans x y z E (Hy z Hz)).
    + constructor; [apply IH; exact Sl|].
      apply Forall_forall. intros z Hz. apply insert_by_in_iff in Hz. destruct Hz as [->|Hz].
      * destruct (le_total x y) as [H|H]; [congruence | exact H].
      * rewrite Forall_forall in Hy. exact (Hy z Hz).
Qed.
Lemma isort_ssorted l : StronglySorted le_rel (isort l).
Proof.
  induction l as [|x l IH]; cbn [isort fold_right]; [constructor|]. apply insert_by_ssorted. exact IH.
Qed.

Lemma filter_insert_by_false (q : bytes -> bool) x l : q x = false -> filter q (insert_by le x l) = filter q l.
Proof.
  intros Hq. induction l as [|y l IH]; cbn [insert_by filter]; [rewrite Hq; reflexivity|].
  destruct (le x y); cbn [filter]; [rewrite Hq; reflexivity|]. rewrite IH. reflexivity.
Qed.

Lemma insert_by_head x l : (forall z, In z l -> le x z = true) -> insert_by le x l = x :: l.
Proof. destruct l as [|y l]; intros H; cbn [insert_by]; [reflexivity|]. rewrite H by (left; reflexivity). reflexivity. Qed.

Lemma filter_insert_by_true (q : bytes -> bool) x l : StronglySorted le_rel l -> q x = true ->
  filter q (insert_by le x l) = insert_by le x (filter q l).
Proof.
  intros S Hq. induction l as [|y l IH]; cbn [insert_by filter]; [rewrite Hq; reflexivity|].
  inversion S as [|y' l' Sl Hy]; subst. rewrite Forall_forall in Hy. destruct (le x y) eqn:E.
  - cbn [filter]. rewrite Hq. destruct (q y) eqn:Qy.
    + cbn [insert_by]. rewrite E. reflexivity.
    + symmetry. apply insert_by_head. intros z Hz. apply filter_In in Hz. destruct Hz as [Hz _].
      exact (le_trans x y z E (Hy z Hz)).
  - cbn [filter]. destruct (q y) eqn:Qy.
    + cbn [insert_by]. rewrite E, IH by exact Sl. reflexivity.
    + apply IH. exact Sl.
Qed.

Lemma filter_none {A} (q : A -> bool) l : (forall x, In x l -> q x = false) -> filter q l = [].
Proof. apply filter_all_false. Qed.

(* the rejected entries B do not influence what is let through of the sorted list *)
Theorem filter_isort_app (q : bytes -> bool) A B : (forall b, In b B -> q b = false) ->
  filter q (isort (A ++ B)) = filter q (isort A).
Proof.
  intros HB. induction A as [|a A IH]; cbn [app].
  - cbn [isort fold_right filter]. apply filter_none. intros x Hx. apply HB. apply isort_in. exact Hx.
  - cbn [isort fold_right]. fold (isort (A ++ B)) (isort A). destruct (q a) eqn:Qa.
    + rewrite !filter_insert_by_true by (try apply isort_ssorted; exact Qa). rewrite IH. reflexivity.
    + rewrite !filter_insert_by_false by exact Qa. exact IH.
Qed.
End SortFilter.

Lemma filter_rev_comm {A} (q : A -> bool) l : filter q (rev l) = rev (filter q l).
Proof.
  induction l as [|x l IH]; [reflexivity|]. cbn [rev filter]. rewrite filter_app, IH. cbn [filter].
  destruct (q x); cbn [rev]; [reflexivity | rewrite app_nil_r; reflexivity].
Qed.

(* the listing order of read_dir_related_files *)
Theorem filter_sort_by_key_app sfx (q : bytes -> bool) A B : (forall b, In b B -> q b = false) ->
  filter q (sort_by_key sfx (A ++ B)) = filter q (sort_by_key sfx A).
Proof.
  intros HB. exact (filter_isort_app (key_le sfx) (key_le_total sfx) (key_le_trans sfx) q A B HB).
Qed.

(* the order of the snapshots *)
Lemma insert_name_by x l : insert_name x l = insert_by lex_le x l.
Proof. induction l as [|y l IH]; cbn [insert_name insert_by]; [reflexivity|]. rewrite IH. reflexivity. Qed.
Lemma sort_names_isort l : sort_names l = isort lex_le l.
Proof.
  unfold sort_names, isort. induction l as [|x l IH]; cbn [fold_right]; [reflexivity|]. rewrite IH. apply insert_name_by.
Qed.
Theorem filter_sort_names_app (q : bytes -> bool) A B : (forall b, In b B -> q b = false) ->
  filter q (sort_names (A ++ B)) = filter q (sort_names A).
Proof.
  intros HB. rewrite !sort_names_isort. exact (filter_isort_app lex_le lex_le_total lex_le_trans q A B HB).
Qed.
Lemma sort_names_in_iff l y : In y (sort_names l) <-> In y l.
Proof. rewrite sort_names_isort. apply isort_in. Qed.
