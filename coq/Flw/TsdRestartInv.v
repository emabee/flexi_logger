(* TimestampsDirect naming (r<time stamp>[.restart-NNNN], no rCURRENT) over several runs: what a NEW writer makes of a
   directory that earlier writers left behind (initialize).
   - without append: the time stamp is the present second, made collision-free: the next free restart counter of this
     second (a restart in the same second as the last file included); the file is created, nothing else changes;
   - with append: the directory is listed, the first 20 bytes of every listed infix are parsed as a time stamp, the NEWEST one is
     taken - it may be older than the present second -, and the newest file with that time stamp (the predecessor of the next
     free infix) is continued under its old name.
   The time stamp read back from a file name is interpreted the way the infix was written: as UTC when use_utc is set, as
   local time otherwise (ts_from_infix; before the repair it was always read as local time, and with append, use_utc and a
   zone offset <> 0 the writer did not find its newest file).
   Hypothesis introduced here: probe_ok (append_ok: asked for with append only), under which the code finds the position of
   the infix in a listed name.  Last, write_active_tsd_k: a write on an active writer with what becomes of the keys. *)
Require Import FL.Base.Bytes FL.Base.BytesFacts FL.Base.PathName FL.Fs.Fs FL.Fs.FsFacts FL.Time.Civil FL.Time.TsFormat
  FL.Names.FileSpec FL.Names.NamesFacts FL.Names.SortFacts FL.Names.FamilyFacts FL.Flw.Model FL.Flw.ModelFacts FL.Flw.NumFs
  FL.Flw.NumInv FL.Flw.Run FL.Flw.RunFacts FL.Flw.NumRun FL.Flw.NumListing FL.Flw.NumRestart FL.Flw.NumDInv
  FL.Flw.TsCal FL.Flw.TsTime FL.Flw.TsNames FL.Flw.TsInv FL.Flw.TsRun FL.Flw.TsParse FL.Flw.TsdInv FL.Flw.TsdRun.
Open Scope nat_scope.

(* ------------------------------------------------------------------ where the infix starts *)
(* ts_infix_from_path finds the position of the infix by looking for "rXXXXX" in the name built with this infix.  This is
   the right position when the fixed name part does not contain "rXXXXX" itself (probe_free_ok) *)
Definition probe : bytes := [114; 88; 88; 88; 88; 88]%N.
Definition probe_ok (c : config) : Prop := find_sub probe (nm c probe) = Some (length (under (fixed0 c))).

Lemma find_sub_here p r : find_sub p (p ++ r) = Some 0.
Proof.
  assert (E : is_prefix p (p ++ r) = true) by apply sk_is_prefix_app.
  destruct (p ++ r) as [|y s]; cbn [find_sub]; rewrite E; reflexivity.
Qed.

Lemma probe_free_ok c : contains probe (fixed0 c) = false -> probe_ok c.
Proof.
  intros Hc. unfold probe_ok, nm. rewrite sk_as_name_some by discriminate.
  rewrite with_suffix_sfxs, <- app_assoc.
  rewrite find_sub_app_skip; [rewrite find_sub_here, Nat.add_0_r; reflexivity|].
  intros a b EU Hb.
  destruct (is_prefix probe (b ++ probe ++ sfxs (c_spec c))) eqn:E; [exfalso | reflexivity].
  apply is_prefix_iff in E. destruct E as [rest E].
  destruct (under_split (fixed0 c) a b EU Hb) as [b' [-> EF]]. rewrite <- app_assoc in E. unfold probe, uscore in E.
  destruct b' as [|x0 [|x1 [|x2 [|x3 [|x4 [|x5 b'']]]]]]; cbn [app] in E; try (injection E; intros; discriminate).
  injection E as -> -> -> -> -> -> _.
  rewrite EF in Hc. change (contains probe (a ++ probe ++ b'') = false) in Hc. rewrite contains_intro in Hc. discriminate.
Qed.

Lemma ts_infix_kname c e k : probe_ok c -> in_years e (fst k) ->
  ts_infix_from_name (c_spec c) (fixed0 c) (kname c e k) = Some (tsx e (fst k)).
Proof.
  intros P Y. unfold ts_infix_from_name.
  change (as_name (c_spec c) (fixed0 c) (Some [114; 88; 88; 88; 88; 88]%N)) with (nm c probe).
  change [114; 88; 88; 88; 88; 88]%N with probe. rewrite P. rewrite kname_shape by exact Y.
  assert (L : Nat.leb (length (under (fixed0 c)) + 20)
                (length (under (fixed0 c) ++ tsx e (fst k) ++ ktail (snd k) ++ sfxs (c_spec c))) = true).
  { apply Nat.leb_le. rewrite !app_length, tsx_length by exact Y. lia. }
  rewrite L. f_equal. rewrite skipn_length_app. rewrite <- (tsx_length e (fst k) Y). apply firstn_length_app.
Qed.

(* ------------------------------------------------------------------ small facts about the list functions of the model *)
Lemma map_opt_some {A B} (g : A -> option B) (h : A -> B) l :
  (forall x, In x l -> g x = Some (h x)) -> map_opt g l = Some (List.map h l).
Proof.
  induction l as [|x l IH]; intros H; cbn [map_opt List.map]; [reflexivity|].
  rewrite (H x (or_introl eq_refl)), IH by (intros y Iy; apply H; right; exact Iy). reflexivity.
Qed.

Lemma max_z_spec l : match max_z l with
                     | None => l = []
                     | Some m => In m l /\ forall v, In v l -> (v <= m)%Z
                     end.
Proof.
  induction l as [|x l IH]; cbn [max_z]; [reflexivity|].
  destruct (max_z l) as [m|].
  - destruct IH as [Im Hm]. split.
    + cbn [In]. destruct (Z.max_spec x m) as [[_ ->]|[_ ->]]; auto.
    + intros v [<-|Hv]; [lia|]. specialize (Hm v Hv). lia.
  - subst l. split; [left; reflexivity|]. intros v [<-|[]]. lia.
Qed.

Lemma filter_some_in {A} (l : list (option A)) y : In y (filter_some l) <-> In (Some y) l.
Proof.
  induction l as [|[x|] l IH]; cbn [filter_some In].
  - tauto.
  - rewrite IH. split; [intros [->|H]; auto | intros [H|H]; [injection H as ->; auto | auto]].
  - rewrite IH. split; [auto | intros [H|H]; [discriminate | exact H]].
Qed.

(* ------------------------------------------------------------------ the listing of latest_timestamp_file *)
(* (the listing filters with the time-stamp parser, as the other listings of the time-stamp namings do; before the repair
   of the code it was the - then lax - number filter) *)
Lemma qf_ts_kname off c e k : in_years e (fst k) ->
  qf off (fsfx (c_spec c)) (fixed0 c) (IFTs std_fmt) (fsfx (c_spec c)) (kname c e k) = true.
Proof.
  intros Y. unfold qf. rewrite (family_is_candidate (c_spec c) (fixed0 c) (kname c e k) (tsx e (fst k))).
  - cbn [filter_infix]. rewrite (canonical_tsx e _ Y). reflexivity.
  - apply family_plain_alt. exists (ktail (snd k)). split; [apply ktail_restart_part|].
    split; [apply tsx_nonempty; exact Y|]. split; [exact (tsx_no_dot e _ Y)|].
    rewrite kname_shape by exact Y. fold (sfxs (c_spec c)). rewrite <- !app_assoc. reflexivity.
Qed.

Lemma ts_from_infix_tsx c w e t : in_years e t -> eoff c w = e -> ts_from_infix c w std_fmt (tsx e t) = Some t.
Proof. intros Y E. unfold ts_from_infix. rewrite (parse_tsx e t Y). unfold eoff in E. destruct (c_utc c); f_equal; lia. Qed.

(* the last key carries the latest second, and it is the newest file of that second *)
Lemma keys_last_max keys n : keys_ok keys -> length keys = S n -> forall k, In k keys -> (fst k <= fst (nth n keys kd))%Z.
Proof.
  intros K L k Ik. destruct (In_nth keys k kd Ik) as [i [Hi <-]].
  destruct (Nat.eq_dec i n) as [->|Hne]; [lia|].
  pose proof (keys_sorted keys K i n ltac:(lia)) as X. unfold klt in X. lia.
Qed.

Lemma keys_last_count keys n : keys_ok keys -> length keys = S n ->
  count (fst (nth n keys kd)) keys = S (snd (nth n keys kd)).
Proof.
  intros K L. inversion K as [E|l t Hl Hle E]; [rewrite <- E in L; discriminate L|].
  rewrite <- E in L. rewrite app_length in L. cbn [length] in L.
  rewrite nth_snoc_last by lia. cbn [fst snd]. rewrite count_app, count_one. cbn [fst]. rewrite Z.eqb_refl. lia.
Qed.

Lemma latest_ts_tsd c crit e lo hi w wr keys closed :
  tsdcfg c crit -> probe_ok c -> years_ok e lo hi -> TsdInv c e lo w wr keys closed -> (wnow w <= hi)%Z ->
  latest_timestamp_file c w false std_fmt = (Ok (fst (nth (length closed) keys kd)), w).
Proof.
  intros [_ [Hts _]] P Y I Hhi.
  pose proof I as [Q W Hnd Hoff Hlen Hc Hcp Hcl Hon Hko Hrg Hwr Hcap].
  destruct (tsdinv_years _ _ _ _ _ _ _ _ I Y Hhi) as [_ Yk].
  pose proof (tsdinv_dir _ _ _ _ _ _ _ I) as [Din Don].
  unfold latest_timestamp_file, with_listing. rewrite tick_quiet by assumption.
  rewrite (fixed_of_fixed0 c w Hts), filter_files_total.
  set (files := filter (qf (woff w) (fsfx (c_spec c)) (fixed0 c) (IFTs std_fmt) (fsfx (c_spec c)))
                       (related_files (wfs w) (fsfx (c_spec c)) (fixed0 c))).
  assert (A : forall x, In x files -> exists k, In k keys /\ x = kname c e k).
  { intros x Ix. apply filter_In in Ix. destruct Ix as [Ix _]. apply related_files_in in Ix. destruct Ix as [Id _].
    apply dir_names_lookup in Id. destruct Id as [j Lj]. destruct (Hon x j Lj) as [i [Hi ->]].
    exists (nth i keys kd). split; [apply nth_In; lia | reflexivity]. }
  assert (B : forall k, In k keys -> In (kname c e k) files).
  { intros k Ik. apply filter_In. split; [|apply qf_ts_kname; apply Yk; exact Ik].
    destruct (Din k Ik) as [j [Lj Pd]]. apply related_files_in. split; [apply dir_names_lookup; eauto|]. split.
    - unfold is_reg_file, file_of. rewrite Lj, Pd. reflexivity.
    - rewrite kname_shape by (apply Yk; exact Ik). apply is_prefix_under. }
  set (h := fun x => match ts_infix_from_name (c_spec c) (fixed0 c) x with Some i => i | None => [] end).
  rewrite (map_opt_some _ h).
  2:{ intros x Ix. destruct (A x Ix) as [k [Ik ->]]. unfold h. rewrite (ts_infix_kname c e k P (Yk k Ik)). reflexivity. }
  set (L := filter_some (List.map (ts_from_infix c w std_fmt) (List.map h files))).
  assert (HL : forall v, In v L <-> exists k, In k keys /\ v = fst k).
  { intros v. unfold L. rewrite filter_some_in, map_map, in_map_iff. split.
    - intros [x [Ex Ix]]. destruct (A x Ix) as [k [Ik ->]]. exists k. split; [exact Ik|].
      unfold h in Ex. rewrite (ts_infix_kname c e k P (Yk k Ik)), (ts_from_infix_tsx c w e _ (Yk k Ik) Hoff) in Ex. congruence.
    - intros [k [Ik ->]]. exists (kname c e k). split; [|apply B; exact Ik].
      unfold h. rewrite (ts_infix_kname c e k P (Yk k Ik)). apply ts_from_infix_tsx; [apply Yk; exact Ik | exact Hoff]. }
  pose proof (max_z_spec L) as M.
  assert (Il : In (nth (length closed) keys kd) keys) by (apply nth_In; lia).
  destruct (max_z L) as [m|].
  - destruct M as [Im Hm]. apply HL in Im. destruct Im as [k [Ik ->]].
    pose proof (keys_last_max keys (length closed) Hko Hlen k Ik) as X1.
    pose proof (Hm (fst (nth (length closed) keys kd)) (proj2 (HL _) (ex_intro _ _ (conj Il eq_refl)))) as X2.
    do 2 f_equal. lia.
  - exfalso. assert (X : In (fst (nth (length closed) keys kd)) L) by (apply HL; eauto). rewrite M in X. exact X.
Qed.

(* ------------------------------------------------------------------ the predecessor of the next free infix *)
Lemma newest_of_next_kname e t n : (N.of_nat n <= usize_max)%N ->
  newest_of_next (tsx e t) (infix_of e (t, S n)) = Some (infix_of e (t, n)).
Proof.
  intros Hn. unfold newest_of_next, infix_of. cbn [fst snd]. unfold restart_infix.
  rewrite app_assoc, strip_prefix_app.
  change (pad_left 4 48 (dec (N.of_nat n))) with (restart_digits (N.of_nat n)).
  rewrite parse_uint_digits by (apply restart_digits_nonempty || apply restart_digits_all).
  assert (V : dec_value (restart_digits (N.of_nat n)) = N.of_nat n).
  { unfold restart_digits, pad_left. rewrite dec_value_zeros. apply dec_value_dec. }
  rewrite V. destruct (N.leb_spec (N.of_nat n) usize_max) as [_|X]; [|lia].
  destruct n as [|n']; [reflexivity|].
  destruct (N.of_nat (S n')) as [|p] eqn:E; [lia|].
  replace (N.pos p - 1)%N with (N.of_nat n') by lia. reflexivity.
Qed.

(* ------------------------------------------------------------------ a new file on the level of the invariant *)
Lemma rotate_tsdinv c e lo hi w wr keys closed :
  TsdInv c e lo w wr keys closed -> years_ok e lo hi -> (wnow w <= hi)%Z ->
  let knew := (wnow w, count (wnow w) keys) in
  lookup (wfs w) (kname c e knew) = None /\
  forall w3, quiet w3 -> eoff c w3 = e -> wnow w3 = wnow w ->
    wfs w3 = append_ino (fst (create_file (wfs w) (kname c e knew) 0%N (wnow w))) (wino wr) (wpend wr) ->
    TsdInv c e lo w3 {| wino := snd (create_file (wfs w) (kname c e knew) 0%N (wnow w)); wpend := []; wcap := c_cap c |}
           (keys ++ [knew]) (closed ++ [cur_view w wr])
    /\ cur_view w3 {| wino := snd (create_file (wfs w) (kname c e knew) 0%N (wnow w)); wpend := []; wcap := c_cap c |} = [].
Proof.
  intros I Y Hhi knew. destruct (tsdinv_rotate c e lo hi w wr keys closed I Y Hhi) as [Ht RI].
  split; [exact Ht|]. intros w3 Q3 Hoff3 Hnow3 F3. destruct (RI w3 Q3 Hoff3 Hnow3 F3) as [I3 [V3 _]]. split; assumption.
Qed.

(* ------------------------------------------------------------------ the first write of a writer: a directory left behind *)
(* the hypothesis for a writer with append: the infix is found in the names *)
Definition append_ok (c : config) : Prop := c_append c = true -> probe_ok c.

Lemma initialize_view_tsd c crit e lo hi w wr keys closed :
  tsdcfg c crit -> tag_ok c -> years_ok e lo hi -> TsdInv c e lo w wr keys closed -> wpend wr = [] ->
  (wnow w <= hi)%Z -> (N.of_nat (length keys) <= usize_max)%N -> append_ok c ->
  exists w' wr' st keys' closed',
    initialize c w = (Ok (Active (Some (mk_rs (NSTs (fst (nth (length closed') keys' kd)) None std_fmt)
                                            (roll_of crit (N.of_nat (length (cur_view w' wr'))) st))) wr'
                                 (kname c e (nth (length closed') keys' kd))), w')
    /\ TsdInv c e lo w' wr' keys' closed' /\ same_env w w'
    /\ (keys', closed', cur_view w' wr')
       = (if c_append c then (keys, closed, cur_view w wr)
          else (keys ++ [(wnow w, count (wnow w) keys)], closed ++ [cur_view w wr], [])).
Proof.
  intros Hcfg T Y I Hp Hhi Hmax Happ. pose proof Hcfg as [Hrot [Hts [Hlink _]]].
  pose proof I as [Q W Hnd Hoff Hlen Hc Hcp Hcl Hon Hko Hrg Hwr Hcap].
  destruct (tsdinv_years _ _ _ _ _ _ _ _ I Y Hhi) as [Ynow Yk].
  unfold initialize. rewrite Hrot. unfold init_naming.
  destruct (c_append c) eqn:Ha; cbn [negb].
  - (* append: the newest file of the newest second is continued *)
    pose proof (Happ Ha) as P.
    set (kl := nth (length closed) keys kd) in *.
    assert (Ikl : In kl keys) by (apply nth_In; lia).
    rewrite (latest_ts_tsd c crit e lo hi w wr keys closed Hcfg P Y I Hhi). cbn [bind]. fold kl.
    unfold collision_free. rewrite !tick_quiet by assumption.
    rewrite (fixed_of_fixed0 c w Hts), infix_from_ts_tsx, Hoff.
    pose proof (keys_last_count keys (length closed) Hko Hlen) as Ecnt. fold kl in Ecnt.
    pose proof (count_le_length (fst kl) keys) as Hcl'.
    rewrite (collision_free_infix_ts c e (woff w) (wfs w) keys (fst kl) (count (fst kl) keys) T (Yk kl Ikl) Yk
               (tsdinv_dir _ _ _ _ _ _ _ I) (keys_count keys Hko (fst kl))) by lia.
    cbn [bind]. rewrite Ecnt, newest_of_next_kname by lia.
    rewrite (name_of_fixed c w) by assumption.
    assert (Ekl : (fst kl, snd kl) = kl) by (destruct kl; reflexivity). rewrite Ekl.
    change (as_name (c_spec c) (fixed0 c) (Some (infix_of e kl))) with (kname c e kl). rewrite Hc.
    cbn [bind]. unfold open_log_file. rewrite (name_of_fixed c w) by assumption.
    change (as_name (c_spec c) (fixed0 c) (Some (infix_of e kl))) with (kname c e kl).
    unfold do_symlink. rewrite Hlink, Ha.
    assert (Fo : file_of (wfs w) (kname c e kl) = Some (inode (wfs w) (wino wr))) by (unfold file_of; rewrite Hc; reflexivity).
    assert (D1 : match file_of (wfs w) (kname c e kl) with Some fl => fdir fl = false | None => True end).
    { rewrite Fo. apply Hcp. }
    destruct (p_open_quiet w (kname c e kl) true Q D1) as [w2 [Eop [F2 S2]]]. rewrite Eop.
    assert (Eopen : open_append (wfs w) (kname c e kl) (wnow w) = (wfs w, wino wr)) by (unfold open_append; rewrite Hc; reflexivity).
    rewrite Eopen in *. cbn [fst snd] in *. cbn [bind].
    assert (Fo2 : file_of (wfs w2) (kname c e kl) = Some (inode (wfs w) (wino wr))) by (rewrite F2; exact Fo).
    rewrite (roll_new_quiet w2 crit true (kname c e kl) _ (proj1 S2) Fo2). cbn [bind].
    assert (Ewr : {| wino := wino wr; wpend := []; wcap := c_cap c |} = wr).
    { destruct wr as [i p k]. cbn [wino wpend wcap] in *. subst. reflexivity. }
    rewrite Ewr.
    assert (V2 : cur_view w2 wr = content (wfs w) (wino wr)) by (unfold cur_view; rewrite F2, Hp; apply app_nil_r).
    exists w2, wr, (fborn (inode (wfs w) (wino wr))), keys, closed. fold kl. split; [rewrite V2; reflexivity|].
    assert (I2 : TsdInv c e lo w2 wr keys closed).
    { destruct (tsdinv_append c e lo w w2 wr wr keys closed [] I) as [I2 _];
        [rewrite append_ino_nil_id; exact F2 | exact S2 | reflexivity | reflexivity | exact Hwr | exact I2]. }
    split; [exact I2|]. split; [exact S2|]. unfold cur_view. rewrite F2. reflexivity.
  - (* no append: the next free name of the present second *)
    unfold latest_timestamp_file. cbn [bind].
    unfold collision_free. rewrite !tick_quiet by assumption.
    rewrite (fixed_of_fixed0 c w Hts), infix_from_ts_tsx, Hoff.
    pose proof (count_le_length (wnow w) keys) as Hcl'.
    rewrite (collision_free_infix_ts c e (woff w) (wfs w) keys (wnow w) (count (wnow w) keys) T Ynow Yk
               (tsdinv_dir _ _ _ _ _ _ _ I) (keys_count keys Hko (wnow w))) by lia.
    cbn [bind]. unfold open_log_file. rewrite (name_of_fixed c w) by assumption.
    set (knew := (wnow w, count (wnow w) keys)).
    change (as_name (c_spec c) (fixed0 c) (Some (infix_of e knew))) with (kname c e knew).
    destruct (rotate_tsdinv c e lo hi w wr keys closed I Y Hhi) as [Ht RI]. fold knew in Ht, RI.
    destruct (open_fresh_quiet c w (kname c e knew) Q Hlink Ht) as [w2 [Eop [F2 S2]]]. rewrite Eop. cbn [bind].
    assert (F3 : wfs w2 = append_ino (fst (create_file (wfs w) (kname c e knew) 0%N (wnow w))) (wino wr) (wpend wr)).
    { rewrite Hp, append_ino_nil_id. exact F2. }
    destruct (RI w2 (proj1 S2) (eq_trans (eoff_same_env c _ _ S2) Hoff) (same_env_now _ _ S2) F3) as [I2 V2].
    assert (En : nth (length (closed ++ [cur_view w wr])) (keys ++ [knew]) kd = knew).
    { apply nth_snoc_last. rewrite app_length. cbn [length]. lia. }
    (* the roll state is read back from the file just created *)
    pose proof (td_cur _ _ _ _ _ _ _ I2) as Lc. rewrite En in Lc.
    rewrite (roll_new_quiet w2 crit false (kname c e knew) _ (proj1 S2) (file_of_lookup _ _ _ Lc)). cbn [bind].
    eexists w2, _, _, (keys ++ [knew]), (closed ++ [cur_view w wr]).
    rewrite En, V2. split; [reflexivity|]. split; [exact I2|]. split; [exact S2 | reflexivity].
Qed.
Print Assumptions initialize_view_tsd.

(* write_active_tsd, and what becomes of the keys: a rotation adds the key (present second, number of files of this second) *)
Lemma write_active_tsd_k c crit e lo hi w wr keys closed roll b :
  tsdcfg c crit -> tag_ok c -> years_ok e lo hi -> TsdInv c e lo w wr keys closed ->
  (wnow w <= hi)%Z -> (N.of_nat (length keys) <= usize_max)%N -> roll_size_ok roll (length (cur_view w wr)) ->
  let rot := rotation_necessary w roll in
  exists w' wr' roll' keys' closed',
    write_buffer (st_tsd c e (nth (length closed) keys kd) roll wr) w b
      = (Ok tt, w', st_tsd c e (nth (length closed') keys' kd) roll' wr', rot)
    /\ TsdInv c e lo w' wr' keys' closed' /\ roll_size_ok roll' (length (cur_view w' wr')) /\ same_env w w'
    /\ (keys', closed', cur_view w' wr')
       = (if rot then (keys ++ [(wnow w, count (wnow w) keys)], closed ++ [cur_view w wr], b)
          else (keys, closed, cur_view w wr ++ b)).
Proof.
  intros Hcfg T Y I Hhi Hmax Hsz rot.
  destruct (write_buffer_tsd c crit e lo hi w wr keys closed roll b Hcfg T Y I Hhi Hmax) as [w' [wr' [E [I' [S' V']]]]].
  fold rot in E, I', V'. pose proof (td_len _ _ _ _ _ _ _ I) as Hlen.
  destruct rot; eexists w', wr', _, _, _; (split; [|split; [exact I'|]]).
  - rewrite nth_snoc_last by (rewrite app_length; cbn [length]; lia). exact E.
  - rewrite V'. split; [apply (roll_size_increase _ 0), reset_roll_size|]. split; [exact S' | reflexivity].
  - exact E.
  - rewrite V', app_length. split; [apply roll_size_increase; exact Hsz|]. split; [exact S' | reflexivity].
Qed.
