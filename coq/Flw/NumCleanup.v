(* Numbers naming with a cleanup strategy: "the cleanup keeps exactly the newest files, compresses losslessly and spares
   the current file", end to end, for every history  OStart c :: ops ++ [OStop]  of basic operations from the empty
   directory.  Parts: NumCleanupNames.v (names, the listing), NumCleanupStep.v (one cleanup), NumCleanupRun.v
   (invariant, rotation, run; theorem numbers_cleanup_stream).  Here: the properties (a)-(d) spelled out, the version
   for a size criterion (the view is a function of the operations), examples, and the counterexamples that show that
   the side condition (suffix not "gz" / not ending with ".gz") is necessary.  Since the repair of the listing order
   (the sort key compares the number behind the last "_r" - or, in a name without basename and discriminant, behind the
   leading "r" - numerically) there is no bound on the indices. *)
Require Import FL.Base.Bytes FL.Fs.Fs FL.Names.FileSpec FL.Flw.Model FL.Flw.NumInv FL.Flw.Run FL.Flw.NumRun
  FL.Oracles.O_Flw FL.Flw.NumTheorems FL.Flw.CleanupFacts FL.Flw.NumCleanupNames FL.Flw.NumCleanupStep
  FL.Flw.NumCleanupRun.
From Coq Require Import ZifyN ZifyNat ZifyBool.
Open Scope nat_scope.

(* ------------------------------------------------------------------ the final directory, name by name *)
Lemma kview_names c f closed cur lo mid : kreader_view c f closed cur lo mid ->
  forall x, (exists j, lookup f x = Some j) <->
    x = cname c \/ (exists i, mid <= i < length closed /\ x = rname c i) \/ (exists i, lo <= i < mid /\ x = gname c i).
Proof.
  intros [[Hle Hnd Hp Ha Hon] (jc & Lc & _)] x. split.
  - intros [j Lj]. exact (Hon _ _ Lj).
  - intros [->|[(i & Hi & ->)|(i & Hi & ->)]]; [eauto | |].
    + destruct (Hp i Hi) as (j & Lj & _). eauto.
    + destruct (Ha i Hi) as (j & Lj & _). eauto.
Qed.

Lemma skipn_cons_nth {A} (l : list A) d : forall lo, lo < length l -> skipn lo l = nth lo l d :: skipn (S lo) l.
Proof. induction l as [|x l IH]; intros [|lo] H; cbn [length] in H; try lia; [reflexivity|]. cbn [skipn nth]. rewrite IH by lia. reflexivity. Qed.

Lemma map_seq_skipn {A} (g : nat -> A) (l : list A) d : forall cnt lo, lo + cnt = length l ->
  (forall i, lo <= i < length l -> g i = nth i l d) -> map g (seq lo cnt) = skipn lo l.
Proof.
  induction cnt as [|cnt IH]; intros lo Hl Hg; cbn [seq map].
  - rewrite skipn_all2 by lia. reflexivity.
  - rewrite (skipn_cons_nth l d lo) by lia. rewrite Hg by lia. f_equal. apply IH; [lia|]. intros i Hi. apply Hg. lia.
Qed.

(* the content found under a name *)
Definition data_at (f : fs) (x : bytes) : bytes := match file_of f x with Some fl => fdata fl | None => [] end.

(* kdir index by index: the files of the plain part and the archives are there with their content, the same index
   under the other name is not, and below lo nothing is left *)
Lemma kdir_by_index c f all lo mid : kdir c f all lo mid ->
  (forall i, mid <= i < length all -> lookup f (gname c i) = None /\
     exists fl, file_of f (rname c i) = Some fl /\ fdata fl = nth i all [] /\ fgz fl = 0%N /\ fdir fl = false)
  /\ (forall i, lo <= i < mid -> lookup f (rname c i) = None /\
        exists fl, file_of f (gname c i) = Some fl /\ fdata fl = nth i all [] /\ fgz fl = 1%N /\ fdir fl = false)
  /\ (forall i, i < lo -> lookup f (rname c i) = None /\ lookup f (gname c i) = None)
  /\ (forall i, lo <= i < length all -> data_at f (entry c mid i) = nth i all []).
Proof.
  intros [Hle Hnd Hp Ha Hon].
  assert (NoR : forall i, ~ mid <= i < length all -> lookup f (rname c i) = None).
  { intros i Hi. destruct (lookup f (rname c i)) as [j|] eqn:E; [|reflexivity]. exfalso.
    destruct (Hon _ _ E) as [X|[(i' & Hi' & X)|(i' & Hi' & X)]].
    - exact (rname_not_cname _ _ X).
    - apply rname_inj in X. lia.
    - symmetry in X. exact (gname_ne_rname _ _ _ X). }
  assert (NoG : forall i, ~ lo <= i < mid -> lookup f (gname c i) = None).
  { intros i Hi. destruct (lookup f (gname c i)) as [j|] eqn:E; [|reflexivity]. exfalso.
    destruct (Hon _ _ E) as [X|[(i' & Hi' & X)|(i' & Hi' & X)]].
    - exact (gname_not_cname _ _ X).
    - exact (gname_ne_rname _ _ _ X).
    - apply gname_inj in X. lia. }
  split; [|split; [|split]].
  - intros i Hi. split; [apply NoG; lia|]. destruct (Hp i Hi) as (j & Lj & [Gj Dj] & Cj).
    exists (inode f j). unfold file_of. rewrite Lj. auto.
  - intros i Hi. split; [apply NoR; lia|]. destruct (Ha i Hi) as (j & Lj & Dj & Gj & Fj).
    exists (inode f j). unfold file_of. rewrite Lj. auto.
  - intros i Hi. split; [apply NoR | apply NoG]; lia.
  - intros i Hi. unfold data_at, file_of. destruct (Nat.le_gt_cases mid i) as [H|H].
    + rewrite entry_plain by exact H. destruct (Hp i ltac:(lia)) as (j & -> & _ & Cj). exact Cj.
    + rewrite entry_arch by exact H. destruct (Ha i ltac:(lia)) as (j & -> & Dj & _). exact Dj.
Qed.

(* ------------------------------------------------------------------ (a)-(d) *)
(* n = number of log files kept as they are, m = number of files kept as archives (KLog n: m = 0; KGz m: n = 0).
   closed, cur: the reader's view that the run would leave without cleanup. *)
Theorem numbers_cleanup_properties c crit k n m t0 off ops closed cur :
  numkcfg c crit k -> klim k = Some (n, m) -> Forall basic_op ops ->
  sfx_ok (c_spec c) ->
  a_run None ops (snd (run (fst (step (sys0 t0 off) (OStart c))) ops)) = Some (closed, cur) ->
  let f := wfs (s_w (fst (run (sys0 t0 off) (OStart c :: ops ++ [OStop])))) in
  let L := length closed in let lo := L - (n + m) in let mid := L - n in
  (* what was written *)
  concat closed ++ cur = written ops
  (* exactly these names exist, each once *)
  /\ (forall x, (exists j, lookup f x = Some j) <->
        x = cname c \/ (exists i, mid <= i < L /\ x = rname c i) \/ (exists i, lo <= i < mid /\ x = gname c i))
  /\ NoDup (dir_names f)
  (* (a) the limits: at most n plain rotated files, at most m archives; the next cleanup would see them like this *)
  /\ L - mid <= n /\ mid - lo <= m
  /\ (forall off', list_log_gz off' (c_spec c) (fixed0 c) f IFNum = Some (listing c lo mid L))
  (* the newest n closed files are there as they were closed *)
  /\ (forall i, mid <= i < L -> lookup f (gname c i) = None /\
        exists fl, file_of f (rname c i) = Some fl /\ fdata fl = nth i closed [] /\ fgz fl = 0%N /\ fdir fl = false)
  (* (c) the next m are complete archives of what the file held when it was closed; the original is gone *)
  /\ (forall i, lo <= i < mid -> lookup f (rname c i) = None /\
        exists fl, file_of f (gname c i) = Some fl /\ fdata fl = nth i closed [] /\ fgz fl = 1%N /\ fdir fl = false)
  (* older files are gone *)
  /\ (forall i, i < lo -> lookup f (rname c i) = None /\ lookup f (gname c i) = None)
  (* (b) the survivors, read by index, then rCURRENT: a suffix of what was written *)
  /\ written ops = concat (firstn lo closed) ++ concat (map (fun i => data_at f (entry c mid i)) (seq lo (L - lo))) ++ cur
  (* (d) the current file is plain and holds what it would hold without cleanup *)
  /\ (exists fl, file_of f (cname c) = Some fl /\ fdata fl = cur /\ fgz fl = 0%N /\ fdir fl = false).
Proof.
  intros Hcfg Hk Hb Hsfx Ea f L lo mid.
  pose proof (numbers_cleanup_stream c crit k t0 off ops Hcfg Hb) as T. cbv zeta in T. rewrite Ea in T. fold f in T.
  destruct T as [Fl V]. { unfold kside. rewrite Hk. exact Hsfx. }
  cbn [flat] in Fl. unfold k_lo, k_mid in V. rewrite Hk in V. fold L lo mid in V.
  pose proof (kview_names _ _ _ _ _ _ V) as Names. fold L in Names.
  destruct V as [KD (jc & Lc & [Gc Dc] & Cc)]. pose proof KD as [Hle Hnd _ _ _]. fold L in Hle.
  destruct (kdir_by_index _ _ _ _ _ KD) as (P1 & P2 & P3 & Data). fold L in P1, Data.
  split; [exact Fl|]. split; [exact Names|]. split; [exact Hnd|]. split; [unfold mid; lia|]. split; [unfold lo, mid; lia|].
  split. { intros off'. apply list_log_gz_numbers; [exact Hsfx | apply kdir_shape; exact KD]. }
  split; [exact P1|]. split; [exact P2|]. split; [exact P3|].
  split.
  { rewrite (map_seq_skipn (fun i => data_at f (entry c mid i)) closed [] (L - lo) lo); [|unfold lo, L; lia | exact Data].
    rewrite app_assoc, <- concat_app, firstn_skipn. symmetry. exact Fl. }
  exists (inode f jc). unfold file_of. rewrite Lc. auto.
Qed.
Print Assumptions numbers_cleanup_properties.

(* KNever: everything stays - the reader's view of NumRun.v, without side conditions *)
Corollary numbers_cleanup_never c crit t0 off ops :
  numkcfg c crit KNever -> Forall basic_op ops ->
  match a_run None ops (snd (run (fst (step (sys0 t0 off) (OStart c))) ops)) with
  | None => names (wfs (s_w (fst (run (sys0 t0 off) (OStart c :: ops ++ [OStop]))))) = []
  | Some (closed, cur) => reader_view c (wfs (s_w (fst (run (sys0 t0 off) (OStart c :: ops ++ [OStop]))))) closed cur
  end.
Proof.
  intros Hcfg Hb. pose proof (numbers_cleanup_stream c crit KNever t0 off ops Hcfg Hb) as T. cbv zeta in T.
  destruct T as [_ V]; [exact I|].
  destruct (a_run None ops (snd (run (fst (step (sys0 t0 off) (OStart c))) ops))) as [[closed cur]|]; [|exact V].
  destruct V as [[Hle Hnd Hp Ha Hon] Hc]. cbn [k_lo k_mid klim] in *. split; [|split].
  - intros i Hi. apply Hp. lia.
  - exact Hc.
  - intros x j Lx. destruct (Hon _ _ Lx) as [E|[(i & Hi & E)|(i & Hi & E)]]; [auto | right; exists i; split; [lia | exact E] | lia].
Qed.

(* ------------------------------------------------------------------ size criterion: the view is a function of the operations *)
Lemma run_size_k' c k m : numkcfg c (CSize m) k -> forall ops x a, RelK c (CSize m) k x a -> Forall basic_op ops ->
  kside c k (nclosed (s_run m a ops)) ->
  a_run a ops (snd (run x ops)) = s_run m a ops.
Proof. intros Hcfg ops x a R Hb Hside. exact (run_size_k0 c k m Hcfg Hside ops x a R Hb). Qed.

(* C08 + cleanup: the closed files and the current file are the greedy partition of what was written; the directory
   holds the newest n of them plain, the next m as archives, and the current file *)
Theorem numbers_cleanup_partition c k m t0 off ops :
  numkcfg c (CSize m) k -> Forall basic_op ops ->
  kside c k (nclosed (s_run m None ops)) ->
  let f := wfs (s_w (fst (run (sys0 t0 off) (OStart c :: ops ++ [OStop])))) in
  match s_run m None ops with
  | None => names f = []
  | Some (closed, cur) =>
    closed ++ [cur] = expected_files m None (items false ops)
    /\ kreader_view c f closed cur (k_lo k (length closed)) (k_mid k (length closed))
  end.
Proof.
  intros Hcfg Hb Hside f.
  pose proof (start_rel_k c (CSize m) k t0 off) as R0.
  pose proof (run_size_k' c k m Hcfg ops _ None R0 Hb Hside) as Es.
  pose proof (numbers_cleanup_stream c (CSize m) k t0 off ops Hcfg Hb) as T. cbv zeta in T. rewrite Es in T.
  destruct (T Hside) as [_ V]. fold f in V.
  pose proof (s_run_none m ops Hb) as P.
  destruct (s_run m None ops) as [[closed cur]|]; [|exact V]. split; [exact P | exact V].
Qed.
Print Assumptions numbers_cleanup_partition.

(* ------------------------------------------------------------------ the same history without cleanup *)
(* The rotation flags - and with them the view (closed, cur) - do not depend on the cleanup strategy: they are decided by
   the clock and the rotation state alone (trace_ok).  So the view of the run with cleanup IS what the same history
   leaves in the directory when the strategy is KNever. *)
Lemma flag_of_env crit w w' ro o : wnow w' = wnow w -> woff w' = woff w -> flag_of crit w' ro o = flag_of crit w ro o.
Proof.
  intros H1 H2. unfold flag_of. destruct (is_write o); [|reflexivity]. rewrite H1. apply rotation_necessary_env; assumption.
Qed.

(* two runs of the same operations whose steps keep relations R, R' with the same view and satisfy trace_ok, started with
   the same clock and rotation state: the same rotation flags, hence the same view *)
Lemma runs_agree_of_steps (R R' : sys -> aview -> Prop) crit :
  (forall x a o, R x a -> basic_op o -> let '(x1, ob) := step x o in R x1 (a_step a o (rot_of ob)) /\ trace_ok crit x x1 o ob) ->
  (forall x a o, R' x a -> basic_op o -> let '(x1, ob) := step x o in R' x1 (a_step a o (rot_of ob)) /\ trace_ok crit x x1 o ob) ->
  forall ops x x' a, R x a -> R' x' a ->
  wnow (s_w x') = wnow (s_w x) -> woff (s_w x') = woff (s_w x) -> roll_of_sys x' = roll_of_sys x ->
  Forall basic_op ops ->
  a_run a ops (snd (run x' ops)) = a_run a ops (snd (run x ops)).
Proof.
  intros St St'. induction ops as [|o r IH]; intros x x' a Rx Rx' Hn Ho Hr Hb; [reflexivity|].
  inversion Hb as [|o' r' Hbo Hbr]; subst. cbn [run] in *.
  pose proof (St x a o Rx Hbo) as S. pose proof (St' x' a o Rx' Hbo) as S'.
  destruct (step x o) as [x1 ob]. destruct (step x' o) as [x1' ob'].
  specialize (IH x1 x1'). destruct (run x1 r) as [x2 obs]. destruct (run x1' r) as [x2' obs']. cbn [snd a_run] in *.
  destruct S as (R1 & F1 & G1 & N1 & O1). destruct S' as (R1' & F1' & G1' & N1' & O1').
  assert (Ef : rot_of ob' = rot_of ob) by (rewrite F1, F1', Hr; apply flag_of_env; assumption).
  rewrite Ef in *. apply IH; auto; congruence.
Qed.

Lemma step_trace_k c crit k : numkcfg c crit k -> kside c k 0 -> forall x a o, RelK c crit k x a -> basic_op o ->
  let '(x1, ob) := step x o in RelK c crit k x1 (a_step a o (rot_of ob)) /\ trace_ok crit x x1 o ob.
Proof.
  intros Hcfg Hs x a o R Ho. pose proof (step_rel_k0 c crit k x a o Hcfg Hs R Ho) as S.
  destruct (step x o) as [x1 ob]. split; apply S.
Qed.

Definition never_cfg (c : config) (crit : criterion) : config :=
  {| c_spec := c_spec c; c_append := c_append c; c_cap := c_cap c; c_rot := Some (crit, NNumbers, KNever); c_utc := c_utc c;
     c_symlink := c_symlink c; c_bg := c_bg c; c_async := c_async c; c_start := c_start c |}.

Theorem numbers_cleanup_vs_never c crit k t0 off ops :
  numkcfg c crit k -> Forall basic_op ops ->
  let a := a_run None ops (snd (run (fst (step (sys0 t0 off) (OStart c))) ops)) in
  kside c k (nclosed a) ->
  let f0 := wfs (s_w (fst (run (sys0 t0 off) (OStart (never_cfg c crit) :: ops ++ [OStop])))) in
  match a with
  | None => names f0 = []
  | Some (closed, cur) => reader_view c f0 closed cur
  end.
Proof.
  intros Hcfg Hb a Hside f0.
  assert (Hcfg0 : numkcfg (never_cfg c crit) crit KNever) by (destruct Hcfg as (_ & ? & ? & ? & ?); repeat split; assumption).
  pose proof (numbers_cleanup_never (never_cfg c crit) crit t0 off ops Hcfg0 Hb) as T. fold f0 in T.
  assert (Ea : a_run None ops (snd (run (fst (step (sys0 t0 off) (OStart (never_cfg c crit)))) ops)) = a).
  { apply (runs_agree_of_steps _ _ crit (step_trace_k c crit k Hcfg Hside) (step_trace_k _ crit KNever Hcfg0 I));
      auto; apply start_rel_k. }
  rewrite Ea in T. destruct a as [[closed cur]|]; exact T.
Qed.
Print Assumptions numbers_cleanup_vs_never.

(* ------------------------------------------------------------------ examples *)
Import String.StringSyntax.
Delimit Scope string_scope with string.

Definition ex_cfg (k : cleanup) (sfx : option bytes) : config :=
  {| c_spec := {| fbase := bs "a"%string; fdisc := None; fts := false; fsfx := sfx |};
     c_append := false; c_cap := None; c_rot := Some (CSize 3, NNumbers, k); c_utc := false; c_symlink := false;
     c_bg := false; c_async := false; c_start := None |}.
(* six records of five bytes, limit 3: a rotation before each record but the first *)
Definition ex_ops : list op := map (fun i => OWrite (bs "abcd"%string ++ [N.of_nat i])) (seq 0 6).
Definition ex_final (k : cleanup) (sfx : option bytes) : obs :=
  snapshot (s_w (fst (run (sys0 0 0) (OStart (ex_cfg k sfx) :: ex_ops ++ [OStop])))).
Definition log_sfx : option bytes := Some (bs "log"%string).

(* KLogGz 1 1, five rotations: r00004 plain, r00003 as an archive (kind 1) with its content, r00000..r00002 gone *)
Example ex_loggz_1_1 :
  ex_final (KLogGz 1 1) log_sfx =
  ObsSnap [(bs "a_r00003.log.gz"%string, 1%N, bs "abcd"%string ++ [3%N]);
           (bs "a_r00004.log"%string, 0%N, bs "abcd"%string ++ [4%N]);
           (bs "a_rCURRENT.log"%string, 0%N, bs "abcd"%string ++ [5%N])] None [].
Proof. vm_compute. reflexivity. Qed.

Example ex_log_2 :
  ex_final (KLog 2) log_sfx =
  ObsSnap [(bs "a_r00003.log"%string, 0%N, bs "abcd"%string ++ [3%N]);
           (bs "a_r00004.log"%string, 0%N, bs "abcd"%string ++ [4%N]);
           (bs "a_rCURRENT.log"%string, 0%N, bs "abcd"%string ++ [5%N])] None [].
Proof. vm_compute. reflexivity. Qed.

Example ex_gz_2 :
  ex_final (KGz 2) log_sfx =
  ObsSnap [(bs "a_r00003.log.gz"%string, 1%N, bs "abcd"%string ++ [3%N]);
           (bs "a_r00004.log.gz"%string, 1%N, bs "abcd"%string ++ [4%N]);
           (bs "a_rCURRENT.log"%string, 0%N, bs "abcd"%string ++ [5%N])] None [].
Proof. vm_compute. reflexivity. Qed.

(* the limits count closed files only: with both limits 0 only the current file is left *)
Example ex_loggz_0_0 :
  ex_final (KLogGz 0 0) log_sfx = ObsSnap [(bs "a_rCURRENT.log"%string, 0%N, bs "abcd"%string ++ [5%N])] None [].
Proof. vm_compute. reflexivity. Qed.

(* the hypotheses of the theorems hold for this history (they are not vacuous), and the conclusion is what was computed *)
Lemma ex_ops_basic : Forall basic_op ex_ops.
Proof. unfold ex_ops. apply Forall_forall. intros o H. apply in_map_iff in H. destruct H as (i & <- & _). exact I. Qed.
Lemma ex_numkcfg k sfx : numkcfg (ex_cfg k sfx) (CSize 3) k.
Proof. repeat split. Qed.
Lemma ex_sfx_ok : sfx_ok (c_spec (ex_cfg (KLogGz 1 1) log_sfx)).
Proof. vm_compute. reflexivity. Qed.

Example ex_instance :
  let c := ex_cfg (KLogGz 1 1) log_sfx in
  let f := wfs (s_w (fst (run (sys0 0 0) (OStart c :: ex_ops ++ [OStop])))) in
  let closed := map (fun i => bs "abcd"%string ++ [N.of_nat i]) (seq 0 5) in
  let cur := bs "abcd"%string ++ [5%N] in
  s_run 3 None ex_ops = Some (closed, cur)
  /\ kreader_view c f closed cur 3 4
  /\ (exists fl, file_of f (gname c 3) = Some fl /\ fdata fl = nth 3 closed [] /\ fgz fl = 1%N /\ fdir fl = false)
  /\ lookup f (rname c 3) = None /\ lookup f (rname c 2) = None /\ lookup f (gname c 2) = None.
Proof.
  intros c f closed cur.
  assert (Es : s_run 3 None ex_ops = Some (closed, cur)) by (vm_compute; reflexivity).
  split; [exact Es|].
  pose proof (numbers_cleanup_partition c (KLogGz 1 1) 3 0 0 ex_ops (ex_numkcfg _ _) ex_ops_basic) as T.
  cbv zeta in T. rewrite Es in T. fold f in T.
  destruct T as [_ V]. { exact ex_sfx_ok. }
  change (k_lo (KLogGz 1 1) (length closed)) with 3 in V. change (k_mid (KLogGz 1 1) (length closed)) with 4 in V.
  split; [exact V|]. destruct V as [KD _]. pose proof KD as [_ _ _ Ha _].
  split. { destruct (Ha 3 ltac:(lia)) as (j & Lj & Dj & Gj & Fj). exists (inode f j). unfold file_of. rewrite Lj. auto. }
  pose proof (kview_names c f closed cur 3 4) as Names.
  assert (NoName : forall x, ~ (x = cname c \/ (exists i, 4 <= i < length closed /\ x = rname c i) \/ (exists i, 3 <= i < 4 /\ x = gname c i)) ->
                   lookup f x = None).
  { intros x H. destruct (lookup f x) as [j|] eqn:E; [|reflexivity]. exfalso. apply H, Names; [split; [exact KD|] | eauto].
    vm_compute. eexists. split; [reflexivity|]. repeat split. }
  repeat split; apply NoName; intros [X|[(j & Hj & X)|(j & Hj & X)]];
    try (exact (rname_not_cname _ _ X)); try (exact (gname_not_cname _ _ X));
    try (apply rname_inj in X; lia); try (apply gname_inj in X; lia);
    try (exact (gname_ne_rname _ _ _ X)); try (symmetry in X; exact (gname_ne_rname _ _ _ X)).
Qed.

(* ------------------------------------------------------------------ the side conditions are necessary (findings) *)
(* 1. The suffix "gz": every closed file is listed twice (as a log file and as an archive), so the limits are used up
      twice as fast: with KLogGz 1 1 only ONE closed file survives (instead of two), and it is not compressed. *)
Example sfx_gz_counterexample :
  ~ sfx_ok (c_spec (ex_cfg (KLogGz 1 1) (Some (bs "gz"%string))))
  /\ ex_final (KLogGz 1 1) (Some (bs "gz"%string)) =
     ObsSnap [(bs "a_r00004.gz"%string, 0%N, bs "abcd"%string ++ [4%N]);
              (bs "a_rCURRENT.gz"%string, 0%N, bs "abcd"%string ++ [5%N])] None [].
Proof. split; [vm_compute; discriminate | vm_compute; reflexivity]. Qed.

(* 2. A suffix that ends with ".gz": the closed files are taken for archives and are never compressed; with KGz 2 two
      PLAIN files are kept (kind 0) and there is no archive. *)
Example sfx_log_gz_counterexample :
  ~ sfx_ok (c_spec (ex_cfg (KGz 2) (Some (bs "log.gz"%string))))
  /\ ex_final (KGz 2) (Some (bs "log.gz"%string)) =
     ObsSnap [(bs "a_r00003.log.gz"%string, 0%N, bs "abcd"%string ++ [3%N]);
              (bs "a_r00004.log.gz"%string, 0%N, bs "abcd"%string ++ [4%N]);
              (bs "a_rCURRENT.log.gz"%string, 0%N, bs "abcd"%string ++ [5%N])] None [].
Proof. split; [vm_compute; discriminate | vm_compute; reflexivity]. Qed.

(* 3. Index 100000.  Before the repair of the listing order the listing was sorted by name, "r100000" came before
      "r99999", and the cleanup with KLog 1 removed r100000 - the NEWEST closed file.  The sort key compares the number
      behind the last "_r" numerically: r100000 is listed first, the cleanup keeps it and removes the older r99999. *)
Definition big_c : config := ex_cfg (KLog 1) log_sfx.
Definition big_fs : fs :=
  mkfile (mkfile (mkfile empty_fs (rname big_c (N.to_nat 99999)) (bs "older"%string) 0 10)
                 (rname big_c (N.to_nat 100000)) (bs "newest"%string) 0 20)
         (cname big_c) (bs "cur"%string) 0 30.
Example index_100000_repaired :
  rname big_c (N.to_nat 99999) = bs "a_r99999.log"%string /\ rname big_c (N.to_nat 100000) = bs "a_r100000.log"%string
  /\ list_log_gz 0 (c_spec big_c) (fixed0 big_c) big_fs IFNum = Some [bs "a_r100000.log"%string; bs "a_r99999.log"%string]
  /\ let r := cleanup_impl big_c (world_of big_fs) (KLog 1) IFNum None in
     fst r = Ok tt
     /\ map (data_at (wfs (snd r))) [bs "a_r99999.log"%string; bs "a_r100000.log"%string; bs "a_rCURRENT.log"%string]
        = [[]; bs "newest"%string; bs "cur"%string]
     /\ lookup (wfs (snd r)) (bs "a_r99999.log"%string) = None.
Proof. vm_compute. repeat split; reflexivity. Qed.

(* the same from the theorem of NumCleanupNames.v, which has no hypothesis on the indices: three closed files up to index
   100001, two of them archives *)
Example index_100000_listing_thm f off :
  dir_shape big_c f (N.to_nat 99999) (N.to_nat 100001) (N.to_nat 100002) ->
  list_log_gz off (c_spec big_c) (fixed0 big_c) f IFNum = Some (listing big_c (N.to_nat 99999) (N.to_nat 100001) (N.to_nat 100002)).
Proof. intros DS. apply list_log_gz_numbers; [vm_compute; reflexivity | exact DS]. Qed.

(* 4. An empty fixed name part (basename suppressed, no discriminant): the names are r<digits>.<suffix> without "_".  A
      sort key that splits the name at "_r" only (the first repair of the crate) fails here; the sort key reads the number
      behind the leading "r": r100000 is listed first, the cleanup with KLog 1 keeps it and removes the older r99999. *)
Definition nofix_c : config :=
  {| c_spec := {| fbase := []; fdisc := None; fts := false; fsfx := log_sfx |};
     c_append := false; c_cap := None; c_rot := Some (CSize 3, NNumbers, KLog 1); c_utc := false; c_symlink := false;
     c_bg := false; c_async := false; c_start := None |}.
Definition nofix_fs : fs :=
  mkfile (mkfile (mkfile empty_fs (rname nofix_c (N.to_nat 99999)) (bs "older"%string) 0 10)
                 (rname nofix_c (N.to_nat 100000)) (bs "newest"%string) 0 20)
         (cname nofix_c) (bs "cur"%string) 0 30.
Example index_100000_empty_fixed_repaired :
  numkcfg nofix_c (CSize 3) (KLog 1) /\ sfx_ok (c_spec nofix_c) /\ fixed0 nofix_c = []
  /\ rname nofix_c (N.to_nat 99999) = bs "r99999.log"%string /\ rname nofix_c (N.to_nat 100000) = bs "r100000.log"%string
  /\ list_log_gz 0 (c_spec nofix_c) (fixed0 nofix_c) nofix_fs IFNum = Some [bs "r100000.log"%string; bs "r99999.log"%string]
  /\ let r := cleanup_impl nofix_c (world_of nofix_fs) (KLog 1) IFNum None in
     fst r = Ok tt
     /\ map (data_at (wfs (snd r))) [bs "r99999.log"%string; bs "r100000.log"%string; bs "rCURRENT.log"%string]
        = [[]; bs "newest"%string; bs "cur"%string]
     /\ lookup (wfs (snd r)) (bs "r99999.log"%string) = None.
Proof.
  split; [repeat split|]. split; [vm_compute; reflexivity|]. split; [reflexivity|].
  vm_compute. repeat split; reflexivity.
Qed.

(* the same from the theorem: any directory of that shape is listed newest first *)
Example index_100000_empty_fixed_listing_thm f off :
  dir_shape nofix_c f (N.to_nat 99999) (N.to_nat 100001) (N.to_nat 100002) ->
  list_log_gz off (c_spec nofix_c) (fixed0 nofix_c) f IFNum = Some (listing nofix_c (N.to_nat 99999) (N.to_nat 100001) (N.to_nat 100002)).
Proof. intros DS. apply list_log_gz_numbers; [vm_compute; reflexivity | exact DS]. Qed.
