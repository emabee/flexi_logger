(* Sequences of runs on the same directory, for a numbered layout (Section Layout; record restart_layout: what a
   layout has to offer for a start on a directory left behind), and its instance for Numbers naming (num_restart,
   numbers_restarts_partial, numbers_restarts_keep).  A writer that starts on the directory that earlier writers left
   behind continues the numbering: nothing that was written before is lost, overwritten or duplicated.  The abstract
   side: g_step / g_run, one run that starts on the view v left by earlier runs; extends v v', every closed file of v
   keeps its place and its content in v'. *)
Require Import FL.Base.Bytes FL.Fs.Fs FL.Names.FileSpec FL.Flw.Model FL.Flw.ModelFacts FL.Flw.NumFs FL.Flw.NumInv
  FL.Flw.Run FL.Flw.RunFacts FL.Flw.NumRun FL.Flw.NumListing FL.Oracles.O_Flw FL.Flw.NumTheorems.
Import String.StringSyntax.
Open Scope nat_scope.

(* ------------------------------------------------------------------ the directory between two writers *)
Definition closed_of (v : aview) : list bytes := match v with Some (cl, _) => cl | None => [] end.

Definition dir_view (c : config) (f : fs) (v : aview) : Prop :=
  match v with
  | None => names f = [] /\ inodes f = []
  | Some (cl, cu) => fs_wf f /\ reader_view c f cl cu
  end.

(* no writer *)
Definition Idle (c : config) (x : sys) (v : aview) : Prop :=
  s_tl x = [] /\ wacts (s_w x) = 0 /\ s_flw x = None /\ quiet (s_w x) /\ dir_view c (wfs (s_w x)) v.
(* a writer that has not written yet: it has not looked at the directory *)
Definition Pre (c : config) (x : sys) (v : aview) : Prop :=
  s_tl x = [] /\ wacts (s_w x) = 0 /\ s_flw x = Some (new_flw c) /\ quiet (s_w x) /\ dir_view c (wfs (s_w x)) v.

(* what the writer makes of the directory it finds, before anything is written *)
Definition init_view (c : config) (v : aview) : list bytes * bytes :=
  match v with
  | None => ([], [])
  | Some (cl, cu) => if c_append c then (cl, cu) else (cl ++ [cu], [])
  end.

(* ------------------------------------------------------------------ one run *)
Definition g_step (c : config) (v a : aview) (o : op) (rot : bool) : aview :=
  match a with
  | None => match o with
            | OWrite _ | OPlain _ => a_step (Some (init_view c v)) o rot
            | _ => None
            end
  | Some _ => a_step a o rot
  end.

Lemma a_step_some p o rot : exists q, a_step (Some p) o rot = Some q.
Proof. destruct p as [cl cu]. destruct o; cbn [a_step]; eauto. Qed.

Lemma quiet_set_now w t : quiet w -> quiet (set_now w t).
Proof. intros [A B]. split; assumption. Qed.

Fixpoint g_run (c : config) (v a : aview) (ops : list op) (obs : list obs) : aview :=
  match ops, obs with
  | o :: r, ob :: robs => g_run c v (g_step c v a o (rot_of ob)) r robs
  | _, _ => a
  end.

(* ---- the bytes of the view ---- *)
Definition gflat (v a : aview) : bytes := match a with None => flat v | Some _ => flat a end.

Lemma init_view_flat c v : flat (Some (init_view c v)) = flat v.
Proof.
  destruct v as [[cl cu]|]; cbn [init_view flat]; [|reflexivity].
  destruct (c_append c); [reflexivity|]. rewrite concat_app. cbn [concat]. rewrite !app_nil_r. reflexivity.
Qed.

Lemma g_step_flat c v a o rot : basic_op o -> gflat v (g_step c v a o rot) = gflat v a ++ written [o].
Proof.
  intros Ho. destruct a as [p|].
  - cbn [g_step gflat]. destruct (a_step_some p o rot) as [q Eq]. rewrite <- (a_step_flat (Some p) o rot Ho), Eq. reflexivity.
  - destruct o; try contradiction; cbn [g_step gflat written]; rewrite ?app_nil_r; try reflexivity.
    + destruct (a_step_some (init_view c v) (OWrite b) rot) as [q Eq].
      assert (X : gflat v (a_step (Some (init_view c v)) (OWrite b) rot) = flat (a_step (Some (init_view c v)) (OWrite b) rot))
        by (rewrite Eq; reflexivity).
      rewrite X, (a_step_flat _ (OWrite b) rot Logic.I), init_view_flat. cbn [written]. rewrite app_nil_r. reflexivity.
    + destruct (a_step_some (init_view c v) (OPlain b) rot) as [q Eq].
      assert (X : gflat v (a_step (Some (init_view c v)) (OPlain b) rot) = flat (a_step (Some (init_view c v)) (OPlain b) rot))
        by (rewrite Eq; reflexivity).
      rewrite X, (a_step_flat _ (OPlain b) rot Logic.I), init_view_flat. cbn [written]. rewrite app_nil_r. reflexivity.
Qed.

Lemma g_run_flat c v ops : forall a obs, Forall basic_op ops -> length obs = length ops ->
  gflat v (g_run c v a ops obs) = gflat v a ++ written ops.
Proof.
  induction ops as [|o r IH]; intros a obs Hb Hl; [cbn; rewrite app_nil_r; reflexivity|].
  destruct obs as [|ob robs]; [discriminate|]. inversion Hb as [|o' r' Ho Hr]; subst.
  cbn [g_run]. rewrite IH by (auto; cbn in Hl; lia). rewrite g_step_flat by assumption.
  rewrite (written_cons o r), app_assoc. reflexivity.
Qed.

(* ---- the number of closed files grows by at most one per operation (and by one at the start) ---- *)
Definition gpot (v a : aview) : nat :=
  match a with None => S (length (closed_of v)) | Some (cl, _) => length cl end.

Lemma a_step_pot cl cu o rot : match a_step (Some (cl, cu)) o rot with
                               | Some (cl', _) => length cl' <= S (length cl)
                               | None => False end.
Proof. destruct o; cbn [a_step]; try lia; try (destruct rot); rewrite ?app_length; cbn [length]; lia. Qed.

Lemma init_view_pot c v : length (fst (init_view c v)) <= S (length (closed_of v)).
Proof.
  destruct v as [[cl cu]|]; cbn [init_view closed_of fst length]; [|lia].
  destruct (c_append c); cbn [fst]; rewrite ?app_length; cbn [length]; lia.
Qed.

Lemma g_step_pot c v a o rot : gpot v (g_step c v a o rot) <= S (gpot v a).
Proof.
  destruct a as [[cl cu]|].
  - cbn [g_step]. pose proof (a_step_pot cl cu o rot) as H. destruct (a_step (Some (cl, cu)) o rot) as [[cl' cu']|]; [|contradiction].
    cbn [gpot]. exact H.
  - pose proof (init_view_pot c v) as H0. destruct (init_view c v) as [cl cu] eqn:Ei. cbn [fst] in H0.
    destruct o; cbn [g_step gpot]; try lia.
    + rewrite Ei. pose proof (a_step_pot cl cu (OWrite b) rot) as H. destruct (a_step (Some (cl, cu)) (OWrite b) rot) as [[cl' cu']|]; [|contradiction]. cbn [gpot]. lia.
    + rewrite Ei. pose proof (a_step_pot cl cu (OPlain b) rot) as H. destruct (a_step (Some (cl, cu)) (OPlain b) rot) as [[cl' cu']|]; [|contradiction]. cbn [gpot]. lia.
Qed.

Lemma g_run_pot c v ops : forall a obs, gpot v (g_run c v a ops obs) <= gpot v a + length ops.
Proof.
  induction ops as [|o r IH]; intros a obs; cbn [g_run length]; [lia|].
  destruct obs as [|ob robs]; [lia|]. specialize (IH (g_step c v a o (rot_of ob)) robs).
  pose proof (g_step_pot c v a o (rot_of ob)). lia.
Qed.

(* the directory after the run *)
Definition gview (v a : aview) : aview := match a with None => v | Some _ => a end.

Lemma gview_flat v a : flat (gview v a) = gflat v a.
Proof. destruct a; reflexivity. Qed.
Lemma gview_pot v a : length (closed_of (gview v a)) <= gpot v a.
Proof. destruct a as [[cl cu]|]; cbn [gview gpot closed_of]; lia. Qed.

(* ---- nothing that is in the directory is touched again: every closed file keeps its place and its content, the
        file that was the current one is only ever appended to (before it is closed under the next number) ---- *)
Definition extends (v v' : aview) : Prop :=
  match v with
  | None => True
  | Some (cl, cu) => exists t more, files_of v' = cl ++ [cu ++ t] ++ more
  end.

Lemma tail_split {A} (X : list A) y P z M : X ++ [y] = P ++ [z] ++ M ->
  (M = [] /\ X = P /\ y = z) \/ exists M', M = M' ++ [y] /\ X = P ++ [z] ++ M'.
Proof.
  intros H. destruct M as [|m0 M0].
  - left. rewrite app_nil_r in H. apply app_inj_tail in H. tauto.
  - right. assert (Hne : m0 :: M0 <> []) by discriminate. destruct (exists_last Hne) as [M' [a E]]. rewrite E in *.
    rewrite !app_assoc in H. apply app_inj_tail in H. destruct H as [H1 H2]. subst a. exists M'. split; [reflexivity|].
    rewrite H1, <- app_assoc. reflexivity.
Qed.

Lemma extends_refl v : extends v v.
Proof. destruct v as [[cl cu]|]; cbn [extends files_of]; [|exact Logic.I]. exists [], []. rewrite !app_nil_r. reflexivity. Qed.

Lemma extends_trans v1 v2 v3 : extends v1 v2 -> extends v2 v3 -> extends v1 v3.
Proof.
  destruct v1 as [[cl1 cu1]|]; [|intros; exact Logic.I]. cbn [extends]. intros [t [more E]].
  destruct v2 as [[cl2 cu2]|]; [|cbn [files_of] in E; destruct cl1; discriminate].
  cbn [extends files_of] in *. intros [t' [more' E']]. rewrite E'.
  destruct (tail_split cl2 cu2 cl1 (cu1 ++ t) more E) as [[-> [-> ->]]|[M' [-> ->]]].
  - exists (t ++ t'), more'. rewrite <- (app_assoc cu1 t t'). reflexivity.
  - exists t, (M' ++ [cu2 ++ t'] ++ more'). rewrite <- !app_assoc. reflexivity.
Qed.

Lemma a_step_extends cl cu o rot : extends (Some (cl, cu)) (a_step (Some (cl, cu)) o rot).
Proof.
  destruct o; cbn [a_step]; try apply extends_refl; try destruct rot; cbn [extends files_of].
  all: try (exists [], [b]; rewrite app_nil_r, <- app_assoc; reflexivity).
  all: try (exists b, []; reflexivity).
  all: exists [], [[]]; rewrite app_nil_r, <- app_assoc; reflexivity.
Qed.

Lemma init_view_extends c v : extends v (Some (init_view c v)).
Proof.
  destruct v as [[cl cu]|]; [|exact Logic.I]. cbn [init_view]. destruct (c_append c); [apply extends_refl|].
  cbn [extends files_of]. exists [], [[]]. rewrite app_nil_r, <- app_assoc. reflexivity.
Qed.

Lemma g_step_extends c v a o rot : extends v (gview v a) -> extends v (gview v (g_step c v a o rot)).
Proof.
  intros H. destruct a as [[cl cu]|].
  - cbn [g_step gview] in *. destruct (a_step_some (cl, cu) o rot) as [q Eq].
    pose proof (a_step_extends cl cu o rot) as X. rewrite Eq in *. cbn [gview]. exact (extends_trans _ _ _ H X).
  - destruct (init_view c v) as [cl cu] eqn:Ei. pose proof (init_view_extends c v) as X0. rewrite Ei in X0.
    destruct o; cbn [g_step gview]; try apply extends_refl; rewrite Ei.
    + destruct (a_step_some (cl, cu) (OWrite b) rot) as [q Eq]. pose proof (a_step_extends cl cu (OWrite b) rot) as X.
      rewrite Eq in *. cbn [gview]. exact (extends_trans _ _ _ X0 X).
    + destruct (a_step_some (cl, cu) (OPlain b) rot) as [q Eq]. pose proof (a_step_extends cl cu (OPlain b) rot) as X.
      rewrite Eq in *. cbn [gview]. exact (extends_trans _ _ _ X0 X).
Qed.

Lemma g_run_extends c v ops : forall a obs, extends v (gview v a) -> extends v (gview v (g_run c v a ops obs)).
Proof.
  induction ops as [|o r IH]; intros a obs H; cbn [g_run]; [exact H|].
  destruct obs as [|ob robs]; [exact H|]. apply IH. apply g_step_extends. exact H.
Qed.

(* ------------------------------------------------------------------ sequences of runs *)
Fixpoint runs_ops (rs : list (config * list op)) : list op :=
  match rs with [] => [] | (c, ops) :: r => OStart c :: ops ++ [OStop] ++ runs_ops r end.
Fixpoint runs_written (rs : list (config * list op)) : bytes :=
  match rs with [] => [] | (_, ops) :: r => written ops ++ runs_written r end.

Lemma runs_ops_cons c ops r : runs_ops ((c, ops) :: r) = (OStart c :: ops ++ [OStop]) ++ runs_ops r.
Proof. cbn [runs_ops app]. rewrite <- app_assoc. reflexivity. Qed.

Lemma runs_ops_app rs1 rs2 : runs_ops (rs1 ++ rs2) = runs_ops rs1 ++ runs_ops rs2.
Proof.
  induction rs1 as [|[c ops] r IH]; [reflexivity|]. cbn [app]. rewrite !runs_ops_cons, IH, <- app_assoc. reflexivity.
Qed.
Lemma runs_written_app rs1 rs2 : runs_written (rs1 ++ rs2) = runs_written rs1 ++ runs_written rs2.
Proof.
  induction rs1 as [|[c ops] r IH]; [reflexivity|]. cbn [app runs_written]. rewrite IH, <- app_assoc. reflexivity.
Qed.

Definition sp_config (sp : file_spec) : config :=
  {| c_spec := sp; c_append := false; c_cap := None; c_rot := None; c_utc := false; c_symlink := false;
     c_bg := false; c_async := false; c_start := None |}.

(* ------------------------------------------------------------------ one run and sequences of runs, for a numbered layout *)
Section Layout.
Variables (cfgp : config -> criterion -> Prop) (ns : nat -> naming_state) (cur : config -> nat -> bytes)
          (Inv : config -> world -> writer -> list bytes -> Prop).
Hypothesis L : layout cfgp ns cur Inv.
(* the directory between two writers, and what a reader makes of it *)
Variables (dview : config -> fs -> aview -> Prop) (rd : config -> fs -> list bytes -> Prop).

Record restart_layout : Prop := {
  rl_crit : forall c crit, cfgp c crit -> exists nam k, c_rot c = Some (crit, nam, k);
  rl_none : forall c f, dview c f None -> names f = [] /\ inodes f = [];
  rl_spec : forall c c' f v, c_spec c = c_spec c' -> dview c f v -> dview c' f v;
  rl_reads : forall c f v, dview c f v -> rd c f (files_of v);
  rl_view : forall c w wr cl, Inv c w wr cl -> wpend wr = [] -> dview c (wfs w) (Some (cl, cur_view w wr));
  rl_init : forall c crit w cl cu,
      cfgp c crit -> quiet w -> dview c (wfs w) (Some (cl, cu)) -> (N.of_nat (length cl) <= u32_max)%N ->
      exists w' wr roll,
        initialize c w = (Ok (Active (Some (mk_rs (ns (length (fst (init_view c (Some (cl, cu)))))) roll)) wr
                                     (cur c (length (fst (init_view c (Some (cl, cu))))))), w')
        /\ Inv c w' wr (fst (init_view c (Some (cl, cu))))
        /\ cur_view w' wr = snd (init_view c (Some (cl, cu)))
        /\ roll_size_ok roll (length (snd (init_view c (Some (cl, cu)))))
        /\ same_env w w'
        /\ (forall m, crit = CSize m -> exists k, roll = RSize m k) }.
Hypothesis RL : restart_layout.

(* no writer *)
Definition LIdle (c : config) (x : sys) (v : aview) : Prop :=
  s_tl x = [] /\ wacts (s_w x) = 0 /\ s_flw x = None /\ quiet (s_w x) /\ dview c (wfs (s_w x)) v.
(* a writer that has not written yet: it has not looked at the directory *)
Definition LPre (c : config) (x : sys) (v : aview) : Prop :=
  s_tl x = [] /\ wacts (s_w x) = 0 /\ s_flw x = Some (new_flw c) /\ quiet (s_w x) /\ dview c (wfs (s_w x)) v.
(* the view of one run: None as long as nothing has been written *)
Definition LGRel (c : config) (crit : criterion) (x : sys) (v a : aview) : Prop :=
  match a with None => LPre c x v | Some _ => LRel ns cur Inv c crit x a end.

Lemma lidle_spec c c' x v : c_spec c = c_spec c' -> LIdle c x v -> LIdle c' x v.
Proof.
  intros E [H1 [H2 [H3 [H4 H5]]]]. split; [exact H1|]. split; [exact H2|]. split; [exact H3|]. split; [exact H4|].
  exact (rl_spec RL c c' _ v E H5).
Qed.

Lemma lpre_sync c crit x v o : cfgp c crit -> LPre c x v -> step x o = sync_step x o.
Proof.
  intros Hcfg [_ [_ [Es _]]]. destruct (lo_sync _ _ _ _ L c crit Hcfg) as [Hts Has]. exact (step_sync_cfg x o _ Es Hts Has).
Qed.

Lemma lfirst_write c crit x v b :
  cfgp c crit -> (N.of_nat (length (closed_of v)) <= u32_max)%N -> LPre c x v ->
  exists w' s' rot,
    write_buffer (new_flw c) (s_w x) b = (Ok tt, w', s', rot)
    /\ LRel ns cur Inv c crit {| s_flw := Some s'; s_w := w'; s_tl := []; s_dead := s_dead x |}
           (a_step (Some (init_view c v)) (OWrite b) rot).
Proof.
  intros Hcfg Hb [Ht [Ha [Es [Q D]]]]. destruct v as [[cl cu]|].
  - cbn [closed_of] in Hb.
    destruct (rl_init RL c crit (s_w x) cl cu Hcfg Q D Hb) as [w1 [wr [roll [Ei [I [V [Z [S1 RS]]]]]]]].
    destruct (init_view c (Some (cl, cu))) as [cl1 cu1]. cbn [fst snd] in *.
    assert (Z0 : roll_size_ok roll (length (cur_view w1 wr))) by (rewrite V; exact Z).
    destruct (active_write _ _ _ _ L c crit w1 wr cl1 roll 0 b Hcfg I Z0) as [w' [wr' [roll' [cl' [E [I' [Z' [S' [V' K]]]]]]]]].
    rewrite ghost_none in Z'.
    exists w', (lay_st ns cur c (length cl') roll' wr'), (rotation_necessary w1 roll).
    split. { rewrite (write_buffer_init c (s_w x) b _ _ _ w1 Ei). exact E. }
    rewrite a_step_active. apply (lrel_act ns cur Inv). exists roll'. split; [|exact (roll_kept_size _ _ _ _ _ K RS)].
    split; [reflexivity|]. split; [exact (same_env_acts _ _ (same_env_trans _ _ _ S1 S') Ha)|]. exists wr'.
    cbn [s_flw s_w v_step fst snd]. rewrite V in V'.
    destruct (rotation_necessary w1 roll); injection V' as -> V''; cbn [fst snd];
      (split; [reflexivity|]; split; [exact I'|]; split; [exact V''|]; rewrite <- V''; exact Z').
  - assert (R0 : LRel ns cur Inv c crit x None).
    { split; [exact Ht|]. split; [exact Ha|]. split; [exact Es|]. split; [exact Q | exact (rl_none RL c _ D)]. }
    destruct (lwrite_rel _ _ _ _ L (lo_init _ _ _ _ L) c crit x None b Hcfg R0) as [s [w' [s' [rot [Es' [Hp [E [R' _]]]]]]]].
    rewrite Es in Es'. injection Es' as <-. exists w', s', rot. split; [exact E | exact R'].
Qed.

Lemma lgstep_rel c crit x v a o :
  cfgp c crit -> (N.of_nat (length (closed_of v)) <= u32_max)%N ->
  LGRel c crit x v a -> basic_op o ->
  let '(x', ob) := step x o in LGRel c crit x' v (g_step c v a o (rot_of ob)).
Proof.
  intros Hcfg Hb G Ho. destruct a as [p|].
  - cbn [LGRel g_step] in *. pose proof (lstep_rel _ _ _ _ L c crit x (Some p) o Hcfg G Ho) as S.
    destruct (step x o) as [x' ob]. destruct S as [R1 _]. rewrite a_step_active in *. exact R1.
  - cbn [LGRel] in G. rewrite (lpre_sync c crit x v o Hcfg G).
    pose proof G as [Ht [Ha [Es [Q D]]]].
    destruct o; try contradiction; cbn [sync_step].
    + (* OWrite *)
      destruct (lfirst_write c crit x v (s_tl x ++ b) Hcfg Hb G) as [w' [s' [rot [E R']]]].
      rewrite Es. cbn [new_flw f_poisoned]. fold (new_flw c). rewrite E. cbn [rot_of g_step].
      rewrite Ht in R'. cbn [app] in R'. rewrite a_step_active in *. exact R'.
    + (* OPlain *)
      destruct (lfirst_write c crit x v b Hcfg Hb G) as [w' [s' [rot [E R']]]].
      rewrite Es. cbn [new_flw f_poisoned]. fold (new_flw c). rewrite E. cbn [rot_of g_step code_of]. rewrite Ht.
      change (a_step (Some (init_view c v)) (OPlain b) rot) with (a_step (Some (init_view c v)) (OWrite b) rot).
      rewrite a_step_active in *. exact R'.
    + (* OFlush *)
      rewrite Es. cbn [new_flw f_poisoned flush_state f_inner rot_of g_step LGRel].
      split; [exact Ht|]. split; [exact Ha|]. split; [reflexivity|]. split; [exact Q | exact D].
    + (* OTrigger *)
      rewrite Es. cbn [new_flw f_poisoned f_cfg f_inner mount_next with_inner rot_of g_step code_of LGRel].
      split; [exact Ht|]. split; [exact Ha|]. split; [reflexivity|]. split; [exact Q | exact D].
    + (* OTick *)
      cbn [rot_of g_step LGRel]. split; [exact Ht|]. split; [exact Ha|]. split; [exact Es|].
      split; [apply quiet_set_now; exact Q | exact D].
    + (* OSnap *)
      cbn [rot_of g_step LGRel]. exact G.
Qed.

Lemma lgrun_rel c crit v : cfgp c crit -> (N.of_nat (length (closed_of v)) <= u32_max)%N ->
  forall ops x a, LGRel c crit x v a -> Forall basic_op ops ->
  LGRel c crit (fst (run x ops)) v (g_run c v a ops (snd (run x ops))).
Proof.
  intros Hcfg Hb. induction ops as [|o r IH]; intros x a G Hbo; [exact G|].
  cbn [run]. inversion Hbo as [|o' r' Ho Hr]; subst.
  pose proof (lgstep_rel c crit x v a o Hcfg Hb G Ho) as S. destruct (step x o) as [x1 ob].
  specialize (IH x1 _ S Hr). destruct (run x1 r) as [x2 obs]. exact IH.
Qed.

Lemma lstart_pre c x v : LIdle c x v -> LPre c (fst (step x (OStart c))) v.
Proof.
  intros [Ht [Ha [Es [Q D]]]]. unfold step, apply_start. rewrite Es. unfold step_core. rewrite Es. cbn [sync_step fst].
  split; [exact Ht|]. split; [exact Ha|]. split; [reflexivity|]. split; [exact Q | exact D].
Qed.

Lemma lstop_idle c crit x v a : cfgp c crit -> LGRel c crit x v a ->
  LIdle c (fst (step x OStop)) (gview v a).
Proof.
  intros Hcfg G. destruct a as [[closed cu]|]; cbn [LGRel gview] in *.
  - rewrite (lrel_sync _ _ _ _ L c crit x _ OStop Hcfg G). destruct G as [Ht [Ha R]]. cbn [sync_step].
    destruct R as [wr [roll [Es [I [V [Z RS]]]]]]. rewrite Es. cbn [lay_st f_poisoned fst].
    destruct (active_drop _ _ _ _ L c (s_w x) wr closed roll I Ha) as [wr' [I' [V' [P' A']]]].
    split; [exact Ht|]. split; [exact A'|]. split; [reflexivity|]. split; [exact (lo_quiet _ _ _ _ L _ _ _ _ I')|].
    pose proof (rl_view RL c _ wr' closed I' P') as D. rewrite V', V in D. exact D.
  - rewrite (lpre_sync c crit x v OStop Hcfg G). destruct G as [Ht [Ha [Es [Q D]]]]. cbn [sync_step].
    rewrite Es. cbn [new_flw f_poisoned drop_state shutdown_state f_inner fst]. unfold LIdle. cbn [s_tl s_w s_flw].
    split; [exact Ht|]. split; [exact Ha|]. split; [reflexivity|]. split; [exact Q | exact D].
Qed.

Lemma lone_run c crit x v ops :
  cfgp c crit -> (N.of_nat (length (closed_of v)) <= u32_max)%N ->
  Forall basic_op ops -> LIdle c x v ->
  exists v', LIdle c (fst (run x (OStart c :: ops ++ [OStop]))) v'
    /\ flat v' = flat v ++ written ops
    /\ length (closed_of v') <= length (closed_of v) + S (length ops)
    /\ extends v v'
    /\ (exists obs, v' = gview v (g_run c v None ops obs)).
Proof.
  intros Hcfg Hb Hops Id. cbn [run]. pose proof (lstart_pre c x v Id) as P0.
  destruct (step x (OStart c)) as [x0 ob0]. cbn [fst] in P0.
  rewrite run_app.
  pose proof (lgrun_rel c crit v Hcfg Hb ops x0 None P0 Hops) as G1. pose proof (run_length ops x0) as Ln.
  destruct (run x0 ops) as [x1 obs1]. cbn [fst snd] in *.
  pose proof (lstop_idle c crit x1 v _ Hcfg G1) as S. cbn [run]. destruct (step x1 OStop) as [x2 ob2]. cbn [fst] in *.
  exists (gview v (g_run c v None ops obs1)). split; [exact S|]. split.
  - rewrite gview_flat, (g_run_flat c v ops None obs1 Hops Ln). reflexivity.
  - split; [pose proof (gview_pot v (g_run c v None ops obs1)); pose proof (g_run_pot c v ops None obs1); cbn [gpot] in *; lia|].
    split; [apply g_run_extends; apply extends_refl|]. exists obs1. reflexivity.
Qed.

Definition lrun_ok (sp : file_spec) (r : config * list op) : Prop :=
  c_spec (fst r) = sp /\ (exists crit, cfgp (fst r) crit) /\ Forall basic_op (snd r).

Lemma lruns_rel sp : forall rs x v c0, c_spec c0 = sp -> Forall (lrun_ok sp) rs -> LIdle c0 x v ->
  (N.of_nat (length (closed_of v) + length (runs_ops rs)) <= u32_max)%N ->
  exists v', LIdle c0 (fst (run x (runs_ops rs))) v' /\ flat v' = flat v ++ runs_written rs /\ extends v v'
    /\ length (closed_of v') <= length (closed_of v) + length (runs_ops rs).
Proof.
  induction rs as [|[c ops] r IH]; intros x v c0 Ec0 Hrs Id Hb.
  - exists v. split; [exact Id|]. cbn [runs_written runs_ops length]. rewrite app_nil_r.
    split; [reflexivity|]. split; [apply extends_refl | lia].
  - inversion Hrs as [|r0 r' [Ec [[crit Hcfg] Hops]] Hr]; subst. cbn [fst snd] in *.
    rewrite runs_ops_cons in *.
    assert (Esp : c_spec c0 = c_spec c) by congruence.
    assert (Hb1 : (N.of_nat (length (closed_of v)) <= u32_max)%N) by lia.
    destruct (lone_run c crit x v ops Hcfg Hb1 Hops (lidle_spec c0 c x v Esp Id)) as [v1 [Id1 [F1 [P1 [X1 _]]]]].
    rewrite run_app. destruct (run x (OStart c :: ops ++ [OStop])) as [x1 obs1]. cbn [fst] in Id1.
    assert (Hb2 : (N.of_nat (length (closed_of v1) + length (runs_ops r)) <= u32_max)%N).
    { rewrite app_length in Hb. cbn [length] in Hb. rewrite app_length in Hb. cbn [length] in Hb. lia. }
    destruct (IH x1 v1 c0 eq_refl Hr (lidle_spec c c0 x1 v1 (eq_sym Esp) Id1) Hb2) as [v2 [Id2 [F2 [X2 P2]]]].
    destruct (run x1 (runs_ops r)) as [x2 obs2]. cbn [fst] in *.
    exists v2. split; [exact Id2|]. split; [rewrite F2, F1; cbn [runs_written]; rewrite app_assoc; reflexivity|].
    split; [exact (extends_trans _ _ _ X1 X2)|].
    rewrite app_length. cbn [length]. rewrite app_length. cbn [length]. lia.
Qed.

Lemma lidle_reads sp c0 x v : c_spec c0 = sp -> LIdle c0 x v ->
  (forall c, c_spec c = sp -> rd c (wfs (s_w x)) (files_of v)) /\ concat (files_of v) = flat v.
Proof.
  intros E0 [_ [_ [_ [_ D]]]]. split.
  - intros c Ec. apply (rl_reads RL). apply (rl_spec RL c0 c); [congruence | exact D].
  - destruct v as [[cl cu]|]; cbn [files_of flat concat]; [|reflexivity].
    rewrite concat_app. cbn [concat]. rewrite app_nil_r. reflexivity.
Qed.

Lemma lrestarts_partial sp x0 rs : LIdle (sp_config sp) x0 None ->
  (N.of_nat (length (runs_ops rs)) <= u32_max)%N -> Forall (lrun_ok sp) rs ->
  exists files,
    (forall c, c_spec c = sp -> rd c (wfs (s_w (fst (run x0 (runs_ops rs))))) files)
    /\ concat files = runs_written rs.
Proof.
  intros Id0 Hb Hrs.
  destruct (lruns_rel sp rs x0 None (sp_config sp) eq_refl Hrs Id0 Hb) as [v' [Id [F _]]].
  destruct (lidle_reads sp (sp_config sp) _ v' eq_refl Id) as [R C].
  exists (files_of v'). split; [exact R|]. rewrite C, F. reflexivity.
Qed.

Lemma lrestarts_keep sp x0 rs1 rs2 : LIdle (sp_config sp) x0 None ->
  (N.of_nat (length (runs_ops (rs1 ++ rs2))) <= u32_max)%N -> Forall (lrun_ok sp) (rs1 ++ rs2) ->
  exists files1 files2,
    (forall c, c_spec c = sp -> rd c (wfs (s_w (fst (run x0 (runs_ops rs1))))) files1)
    /\ concat files1 = runs_written rs1
    /\ (forall c, c_spec c = sp -> rd c (wfs (s_w (fst (run x0 (runs_ops (rs1 ++ rs2)))))) files2)
    /\ concat files2 = runs_written (rs1 ++ rs2)
    /\ (files1 = [] \/ exists closed cu t more, files1 = closed ++ [cu] /\ files2 = closed ++ [cu ++ t] ++ more).
Proof.
  intros Id0 Hb Hrs. apply Forall_app in Hrs. destruct Hrs as [Hrs1 Hrs2].
  rewrite runs_ops_app, app_length in Hb.
  assert (Hb1 : (N.of_nat (length (closed_of None) + length (runs_ops rs1)) <= u32_max)%N) by (cbn [closed_of length]; lia).
  destruct (lruns_rel sp rs1 x0 None (sp_config sp) eq_refl Hrs1 Id0 Hb1) as [v1 [Id1 [F1 [_ P1]]]].
  rewrite runs_ops_app, run_app. destruct (run x0 (runs_ops rs1)) as [x1 obs1]. cbn [fst] in *.
  assert (Hb2 : (N.of_nat (length (closed_of v1) + length (runs_ops rs2)) <= u32_max)%N) by (cbn [closed_of length] in P1; lia).
  destruct (lruns_rel sp rs2 x1 v1 (sp_config sp) eq_refl Hrs2 Id1 Hb2) as [v2 [Id2 [F2 [X2 _]]]].
  destruct (run x1 (runs_ops rs2)) as [x2 obs2]. cbn [fst] in *.
  destruct (lidle_reads sp (sp_config sp) _ v1 eq_refl Id1) as [R1 C1]. destruct (lidle_reads sp (sp_config sp) _ v2 eq_refl Id2) as [R2 C2].
  exists (files_of v1), (files_of v2). split; [exact R1|]. split; [rewrite C1, F1; reflexivity|].
  split; [exact R2|]. split; [rewrite C2, F2, F1, runs_written_app; reflexivity|].
  destruct v1 as [[cl cu]|]; [right | left; reflexivity]. cbn [extends] in X2. destruct X2 as [t [more E]].
  exists cl, cu, t, more. split; [reflexivity | exact E].
Qed.
End Layout.

(* the names depend on the file spec only *)
Lemma rname_spec_eq c c' i : c_spec c = c_spec c' -> rname c i = rname c' i.
Proof. unfold rname, nm, fixed0. intros ->. reflexivity. Qed.
Lemma cname_spec_eq c c' : c_spec c = c_spec c' -> cname c = cname c'.
Proof. unfold cname, nm, fixed0. intros ->. reflexivity. Qed.

Lemma reader_view_spec c c' f cl cu : c_spec c = c_spec c' -> reader_view c f cl cu -> reader_view c' f cl cu.
Proof.
  intros E [H1 [H2 H3]]. unfold reader_view. rewrite <- (cname_spec_eq c c' E).
  split; [|split].
  - intros i Hi. rewrite <- (rname_spec_eq c c' i E). apply H1. exact Hi.
  - exact H2.
  - intros n j L. destruct (H3 n j L) as [->|[i [Hi ->]]]; [left; reflexivity|]. right. exists i.
    split; [exact Hi | apply rname_spec_eq; exact E].
Qed.

Lemma dir_view_spec c c' f v : c_spec c = c_spec c' -> dir_view c f v -> dir_view c' f v.
Proof.
  intros E. destruct v as [[cl cu]|]; cbn [dir_view]; [|tauto].
  intros [W R]. split; [exact W | exact (reader_view_spec c c' f cl cu E R)].
Qed.

(* ------------------------------------------------------------------ the directory seen as the state of a writer *)
Lemma numinv_of_view c w cl cu : quiet w -> fs_wf (wfs w) -> reader_view c (wfs w) cl cu ->
  exists j, NumInv c w {| wino := j; wpend := []; wcap := c_cap c |} cl
            /\ cur_view w {| wino := j; wpend := []; wcap := c_cap c |} = cu.
Proof.
  intros Q W [Hcl [[j [Lj [Pj Cj]]] Hon]]. exists j. split.
  - constructor; cbn [wino wpend wcap]; try assumption.
    + apply wr_ok_nil.
    + reflexivity.
  - unfold cur_view. cbn [wino wpend]. rewrite app_nil_r. exact Cj.
Qed.

(* the listing of initialize *)
Lemma listing_view c w cl cu : fts (c_spec c) = false -> quiet w ->
  reader_view c (wfs w) cl cu -> (N.of_nat (length cl) <= u32_max)%N ->
  with_listing w (fun w' =>
     match get_highest_index (woff w') (c_spec c) (fixed_of c w') (wfs w') with
     | None => None
     | Some (Some i) => Some (i + 1)%N
     | Some None => Some 0%N
     end) = (Ok (N.of_nat (length cl)), w).
Proof.
  intros Hts Q R Hb. unfold with_listing. rewrite tick_quiet by assumption.
  rewrite fixed_of_fixed0 by assumption. rewrite (highest_index_view c (woff w) (wfs w) cl cu R Hb).
  destruct (length cl) as [|k]; [reflexivity|]. do 2 f_equal. lia.
Qed.

Lemma roll_new_fresh w crit path : exists roll,
  roll_new w crit false path = (Ok roll, w) /\ roll_size_ok roll 0 /\ (forall m, crit = CSize m -> exists k, roll = RSize m k).
Proof.
  unfold roll_new. eexists. split; [reflexivity|]. split; [destruct crit; reflexivity|]. intros m ->. eauto.
Qed.

Lemma roll_new_append w crit path fl : quiet w -> file_of (wfs w) path = Some fl -> exists roll,
  roll_new w crit true path = (Ok roll, w) /\ roll_size_ok roll (length (fdata fl))
  /\ (forall m, crit = CSize m -> exists k, roll = RSize m k).
Proof.
  intros Q F. unfold roll_new. rewrite tick_quiet by assumption. rewrite F.
  eexists. split; [reflexivity|]. split; [destruct crit; reflexivity|]. intros m ->. eauto.
Qed.

(* ---- the first write initialises the writer: a directory left behind by earlier writers ---- *)
Lemma initialize_view c crit w cl cu :
  numcfg c crit -> quiet w -> fs_wf (wfs w) -> reader_view c (wfs w) cl cu ->
  (N.of_nat (length cl) <= u32_max)%N ->
  exists w' wr roll,
    initialize c w = (Ok (Active (Some (mk_rs (NSNumR (N.of_nat (length (fst (init_view c (Some (cl, cu))))))) roll)) wr (cname c)), w')
    /\ NumInv c w' wr (fst (init_view c (Some (cl, cu))))
    /\ cur_view w' wr = snd (init_view c (Some (cl, cu)))
    /\ roll_size_ok roll (length (snd (init_view c (Some (cl, cu)))))
    /\ same_env w w'
    /\ (forall m, crit = CSize m -> exists k, roll = RSize m k).
Proof.
  intros [Hrot [Hts [Hlink _]]] Q W R Hb.
  destruct (numinv_of_view c w cl cu Q W R) as [j [I V]].
  set (wr0 := {| wino := j; wpend := []; wcap := c_cap c |}) in *.
  pose proof I as [_ _ Hc Hcp _ _ _ _]. cbn [wr0 wino] in Hc, Hcp.
  unfold initialize. rewrite Hrot. unfold init_naming, index_for_rcurrent.
  rewrite (listing_view c w cl cu Hts Q R Hb).
  cbn [init_view]. destruct (c_append c) eqn:Happ; cbn [negb fst snd].
  - (* append: the current file is continued *)
    cbn [bind]. unfold open_log_file. rewrite (name_of_fixed c w) by assumption. fold (nm c cur_infix) (cname c).
    unfold do_symlink. rewrite Hlink, Happ.
    assert (Fo : file_of (wfs w) (cname c) = Some (inode (wfs w) j)) by (unfold file_of; rewrite Hc; reflexivity).
    assert (D1 : match file_of (wfs w) (cname c) with Some fl => fdir fl = false | None => True end).
    { rewrite Fo. apply Hcp. }
    destruct (p_open_quiet w (cname c) true Q D1) as [w2 [Eop [F2 S2]]]. rewrite Eop.
    assert (Eopen : open_append (wfs w) (cname c) (wnow w) = (wfs w, j)) by (unfold open_append; rewrite Hc; reflexivity).
    rewrite Eopen in *. cbn [fst snd] in *. cbn [bind].
    assert (Fo2 : file_of (wfs w2) (cname c) = Some (inode (wfs w) j)) by (rewrite F2; exact Fo).
    destruct (roll_new_append w2 crit (cname c) _ (proj1 S2) Fo2) as [roll [Ern [Z RS]]]. rewrite Ern. cbn [bind].
    exists w2, wr0, roll. split; [reflexivity|].
    split; [apply (numinv_env c w); [exact I | exact F2 | apply S2]|].
    split; [unfold cur_view; rewrite F2; exact V|].
    split. { rewrite <- V. unfold cur_view. cbn [wr0 wino wpend]. rewrite app_nil_r. exact Z. }
    split; [exact S2 | exact RS].
  - (* no append: the current file is closed under the next number *)
    rewrite !(name_of_fixed c w) by assumption. fold (nm c cur_infix) (nm c (number_infix (N.of_nat (length cl)))).
    fold (cname c) (rname c (length cl)).
    destruct (rotate_numinv c w wr0 cl (wnow w) I) as [f1 [Er [L1c RI]]].
    pose proof (p_rename_quiet w (cname c) (rname c (length cl)) Q) as PR. rewrite Er in PR.
    destruct PR as [w1 [Epr [F1 S1]]]. rewrite Epr. cbn [bind].
    unfold open_log_file. rewrite (name_of_fixed c w1) by assumption. fold (nm c cur_infix) (cname c).
    unfold do_symlink. rewrite Hlink.
    assert (D1 : match file_of (wfs w1) (cname c) with Some fl => fdir fl = false | None => True end).
    { unfold file_of. rewrite F1, L1c. exact Logic.I. }
    destruct (p_open_quiet w1 (cname c) (c_append c) (proj1 S1) D1) as [w2 [Eop [F2 S2]]].
    rewrite Happ in Eop, F2. rewrite Happ, Eop.
    assert (Eopen : open_trunc (wfs w1) (cname c) 0%N (wnow w1) = create_file f1 (cname c) 0%N (wnow w)).
    { rewrite F1. destruct S1 as [_ [-> _]]. apply open_trunc_fresh. exact L1c. }
    rewrite Eopen in *. clear Eopen. cbn [bind].
    destruct (roll_new_fresh w2 crit (cname c)) as [roll [Ern [Z RS]]]. rewrite Ern. cbn [bind].
    assert (F3 : wfs w2 = append_ino (fst (create_file f1 (cname c) 0%N (wnow w))) (wino wr0) (wpend wr0)).
    { cbn [wr0 wpend]. rewrite append_ino_nil_id. exact F2. }
    destruct (RI w2 (proj1 S2) F3) as [I2 [V2 _]].
    assert (Elen : N.of_nat (length (cl ++ [cu])) = (N.of_nat (length cl) + 1)%N).
    { rewrite app_length. cbn [length]. lia. }
    rewrite V in I2.
    eexists w2, _, roll. split; [rewrite Elen; reflexivity|].
    split; [exact I2|]. split; [exact V2|]. split; [exact Z|].
    split; [eapply same_env_trans; eassumption | exact RS].
Qed.

(* ------------------------------------------------------------------ Numbers naming *)
Lemma dir_view_reads c f v : dir_view c f v -> reads c f (files_of v).
Proof. intros D. apply files_of_reads. destruct v as [[cl cu]|]; cbn [dir_view] in D; tauto. Qed.

Definition num_restart : restart_layout numcfg (fun n => NSNumR (N.of_nat n)) (fun c _ => cname c) NumInv dir_view reads :=
  Build_restart_layout _ _ _ _ _ _
    (fun c crit H => ex_intro _ _ (ex_intro _ _ (proj1 H))) (fun c f D => D) dir_view_spec dir_view_reads
    (fun c w wr cl I P => conj (ni_wf _ _ _ _ I) (numinv_reader_view c w wr cl I P))
    (fun c crit w cl cu Hcfg Q D Hb => initialize_view c crit w cl cu Hcfg Q (proj1 D) (proj2 D) Hb).

Lemma idle_spec c c' x v : c_spec c = c_spec c' -> Idle c x v -> Idle c' x v.
Proof. exact (lidle_spec _ _ _ _ _ _ num_restart c c' x v). Qed.

Lemma first_write c crit x v b :
  numcfg c crit -> (N.of_nat (length (closed_of v)) <= u32_max)%N -> Pre c x v ->
  exists w' s' rot,
    write_buffer (new_flw c) (s_w x) b = (Ok tt, w', s', rot)
    /\ Rel c crit {| s_flw := Some s'; s_w := w'; s_tl := []; s_dead := s_dead x |}
           (a_step (Some (init_view c v)) (OWrite b) rot).
Proof. exact (lfirst_write _ _ _ _ num_layout _ _ num_restart c crit x v b). Qed.

Lemma step_sync_pre c crit x v o : numcfg c crit -> Pre c x v -> step x o = sync_step x o.
Proof. exact (lpre_sync _ _ _ _ num_layout dir_view c crit x v o). Qed.

Lemma idle0 c t0 off : Idle c (sys0 t0 off) None.
Proof. cbn. repeat split. Qed.

(* All runs together: the files of the family hold exactly what the runs wrote, in order.  Any number of runs, each
   with its own configuration (append or not, any criterion, any buffer capacity), runs without a write included.
   Nothing is required of the file spec (since fix cc9ae9d of the crate the index of a listed file is read directly
   after the fixed name part; before, it was read after the last "_r" of the whole name, which went wrong for a suffix
   that contains "_r": suffix_with_ur_keeps_records below).
   The bound on the length of the history is needed because the index that is read back from a listed file name
   is parsed as u32 and counts as 0 when it does not fit (index_beyond_u32_reads_as_0 below); a history of that
   length cannot be evaluated, so there is no end-to-end example for it. *)
Theorem numbers_restarts_partial sp t0 off rs :
  (N.of_nat (length (runs_ops rs)) <= u32_max)%N ->
  Forall (fun r => c_spec (fst r) = sp /\ (exists crit, numcfg (fst r) crit) /\ Forall basic_op (snd r)) rs ->
  exists files,
    (forall c, c_spec c = sp -> reads c (wfs (s_w (fst (run (sys0 t0 off) (runs_ops rs))))) files)
    /\ concat files = runs_written rs.
Proof. exact (lrestarts_partial _ _ _ _ num_layout _ _ num_restart sp (sys0 t0 off) rs (idle0 _ t0 off)). Qed.
Print Assumptions numbers_restarts_partial.

(* No file name is reused, no earlier file is touched: whatever further runs follow, every file that was closed keeps
   its number and its content; the file that was the current one is found under the next number (or is still the
   current one), with its old content as a prefix. *)
Theorem numbers_restarts_keep sp t0 off rs1 rs2 :
  (N.of_nat (length (runs_ops (rs1 ++ rs2))) <= u32_max)%N ->
  Forall (fun r => c_spec (fst r) = sp /\ (exists crit, numcfg (fst r) crit) /\ Forall basic_op (snd r)) (rs1 ++ rs2) ->
  exists files1 files2,
    (forall c, c_spec c = sp -> reads c (wfs (s_w (fst (run (sys0 t0 off) (runs_ops rs1))))) files1)
    /\ concat files1 = runs_written rs1
    /\ (forall c, c_spec c = sp -> reads c (wfs (s_w (fst (run (sys0 t0 off) (runs_ops (rs1 ++ rs2)))))) files2)
    /\ concat files2 = runs_written (rs1 ++ rs2)
    /\ (files1 = [] \/ exists closed cur t more, files1 = closed ++ [cur] /\ files2 = closed ++ [cur ++ t] ++ more).
Proof. exact (lrestarts_keep _ _ _ _ num_layout _ _ num_restart sp (sys0 t0 off) rs1 rs2 (idle0 _ t0 off)). Qed.
Print Assumptions numbers_restarts_keep.

(* ------------------------------------------------------------------ examples *)
Open Scope string_scope.
Definition ex_sp (sfx : String.string) : file_spec := {| fbase := bs "app"; fdisc := None; fts := false; fsfx := Some (bs sfx) |}.
Definition ex_cfg (sp : file_spec) (app : bool) (crit : criterion) (cap : option nat) : config :=
  {| c_spec := sp; c_append := app; c_cap := cap; c_rot := Some (crit, NNumbers, KNever); c_utc := false;
     c_symlink := false; c_bg := false; c_async := false; c_start := None |}.

(* the hypotheses of the theorems can be met: three runs with different configurations, one of them appending *)
Definition ex_rs : list (config * list op) :=
  [ (ex_cfg (ex_sp "log") false (CSize 3) None, [OWrite (bs "abcd"); OWrite (bs "ef"); OTrigger; OWrite (bs "g")]);
    (ex_cfg (ex_sp "log") true (CSize 1) (Some 8%nat), [OTick 5; OFlush; OWrite (bs "hi"); OWrite (bs "j")]);
    (ex_cfg (ex_sp "log") false (CAge ADay) None, [OSnap]);
    (ex_cfg (ex_sp "log") false (CAgeOrSize AHour 100) (Some 2%nat), [OPlain (bs "k")]) ].

Example restarts_instance :
  exists files,
    (forall c, c_spec c = ex_sp "log" -> reads c (wfs (s_w (fst (run (sys0 0 0) (runs_ops ex_rs))))) files)
    /\ concat files = bs "abcdefghijk".
Proof.
  apply (numbers_restarts_partial (ex_sp "log") 0 0 ex_rs).
  - vm_compute. discriminate.
  - unfold ex_rs. repeat (apply Forall_cons; [split; [reflexivity|]; split; [eexists; repeat split|]; repeat constructor|]).
    apply Forall_nil.
Qed.

Definition snap_of (x : sys) : list (bytes * N * bytes) :=
  match snapshot (s_w x) with ObsSnap l _ _ => l | _ => [] end.

(* the directory of that history: abcd | ef | g, the appending run continues "g" and then rotates ("ghi" is larger
   than 1), the run without a write changes nothing, the last run closes "j" and starts a new current file *)
Example restarts_instance_dir :
  snap_of (fst (run (sys0 0 0) (runs_ops ex_rs)))
  = [ (bs "app_r00000.log", 0%N, bs "abcd"); (bs "app_r00001.log", 0%N, bs "ef"); (bs "app_r00002.log", 0%N, bs "ghi");
      (bs "app_r00003.log", 0%N, bs "j"); (bs "app_rCURRENT.log", 0%N, bs "k") ].
Proof. vm_compute. reflexivity. Qed.

(* a suffix that contains "_r": the index of a listed file is read directly after the fixed name part, the suffix does
   not disturb it (before fix cc9ae9d of the crate the index was read behind the last "_r" of the whole name: every file
   counted as number 5 here, and "b" was overwritten) *)
Definition ex_ur : list (config * list op) :=
  [ (ex_cfg (ex_sp "x_r5") false (CSize 100) None, [OWrite (bs "a"); OTrigger; OWrite (bs "b")]);
    (ex_cfg (ex_sp "x_r5") false (CSize 100) None, [OWrite (bs "c")]);
    (ex_cfg (ex_sp "x_r5") false (CSize 100) None, [OWrite (bs "d")]) ].

Example suffix_with_ur_keeps_records :
  snap_of (fst (run (sys0 0 0) (runs_ops ex_ur)))
  = [ (bs "app_r00000.x_r5", 0%N, bs "a"); (bs "app_r00001.x_r5", 0%N, bs "b"); (bs "app_r00002.x_r5", 0%N, bs "c");
      (bs "app_rCURRENT.x_r5", 0%N, bs "d") ].
Proof. vm_compute. reflexivity. Qed.

Example suffix_with_ur_instance :
  exists files,
    (forall c, c_spec c = ex_sp "x_r5" -> reads c (wfs (s_w (fst (run (sys0 0 0) (runs_ops ex_ur))))) files)
    /\ concat files = bs "abcd".
Proof.
  apply (numbers_restarts_partial (ex_sp "x_r5") 0 0 ex_ur).
  - vm_compute. discriminate.
  - unfold ex_ur. repeat (apply Forall_cons; [split; [reflexivity|]; split; [eexists; repeat split|]; repeat constructor|]).
    apply Forall_nil.
Qed.

(* the bound on the history is needed: an index that does not fit u32 is read back as 0 *)
Example index_beyond_u32_reads_as_0 :
  index_of_listed (bs "app") (nm (ex_cfg (ex_sp "log") false (CSize 1) None) (number_infix 4294967296))
  = Some 0%N
  /\ index_of_listed (bs "app") (nm (ex_cfg (ex_sp "log") false (CSize 1) None) (number_infix 4294967295))
  = Some 4294967295%N.
Proof. vm_compute. split; reflexivity. Qed.

Print Assumptions numbers_restarts_partial.
Print Assumptions numbers_restarts_keep.
