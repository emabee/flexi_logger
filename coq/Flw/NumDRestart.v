(* NumbersDirect naming: sequences of runs on the same directory.  A writer that starts on the directory that earlier
   writers left behind continues the numbering: with append it continues the file with the highest number, without
   append it starts the next number; nothing that was written before is lost, overwritten or duplicated.
   The abstract side (init_view, g_step, g_run, gflat, gpot, gview, extends, runs_ops, runs_written) is the one of
   Numbers naming (NumRestart.v). *)
Require Import FL.Base.Bytes FL.Fs.Fs FL.Names.FileSpec FL.Flw.Model FL.Flw.ModelFacts FL.Flw.NumFs FL.Flw.NumInv
  FL.Flw.Run FL.Flw.RunFacts FL.Flw.NumRun FL.Flw.NumListing FL.Oracles.O_Flw FL.Flw.NumTheorems FL.Flw.NumRestart
  FL.Flw.NumDInv FL.Flw.NumDRun FL.Flw.NumDTheorems.
Import String.StringSyntax.
Open Scope nat_scope.

(* ------------------------------------------------------------------ the listing *)
(* on a directory that consists exactly of r00000 .. r(n), the highest index found is n *)
Lemma highest_index_direct c off f files :
  direct_view c f files ->
  (N.of_nat (pred (length files)) <= u32_max)%N ->
  get_highest_index off (c_spec c) (fixed0 c) f = Some (match length files with O => None | S k => Some (N.of_nat k) end).
Proof.
  intros [Hcl Hon] Hb. apply highest_index_numbered; [| |exact Hb].
  - intros i Hi. destruct (Hcl i Hi) as [j [Lj [[_ Pd] _]]]. eauto.
  - intros n j Lj. right. exact (Hon n j Lj).
Qed.

(* the listing of initialize *)
Lemma listing_direct c w cl cu : fts (c_spec c) = false -> quiet w ->
  direct_view c (wfs w) (cl ++ [cu]) -> (N.of_nat (length cl) <= u32_max)%N ->
  with_listing w (fun w' => get_highest_index (woff w') (c_spec c) (fixed_of c w') (wfs w'))
  = (Ok (Some (N.of_nat (length cl))), w).
Proof.
  intros Hts Q R Hb. unfold with_listing. rewrite tick_quiet by assumption.
  rewrite fixed_of_fixed0 by assumption.
  assert (El : length (cl ++ [cu]) = S (length cl)) by (rewrite app_length; cbn [length]; lia).
  rewrite (highest_index_direct c (woff w) (wfs w) (cl ++ [cu]) R) by (rewrite El; cbn [pred]; exact Hb).
  rewrite El. reflexivity.
Qed.

(* ------------------------------------------------------------------ the directory between two writers *)
Definition dir_view_d (c : config) (f : fs) (v : aview) : Prop :=
  match v with
  | None => names f = [] /\ inodes f = []
  | Some (cl, cu) => fs_wf f /\ direct_view c f (cl ++ [cu])
  end.

(* no writer *)
Definition IdleD (c : config) (x : sys) (v : aview) : Prop :=
  s_tl x = [] /\ wacts (s_w x) = 0 /\ s_flw x = None /\ quiet (s_w x) /\ dir_view_d c (wfs (s_w x)) v.
(* a writer that has not written yet: it has not looked at the directory *)
Definition PreD (c : config) (x : sys) (v : aview) : Prop :=
  s_tl x = [] /\ wacts (s_w x) = 0 /\ s_flw x = Some (new_flw c) /\ quiet (s_w x) /\ dir_view_d c (wfs (s_w x)) v.

Lemma direct_view_spec c c' f files : c_spec c = c_spec c' -> direct_view c f files -> direct_view c' f files.
Proof.
  intros E [H1 H2]. split.
  - intros i Hi. rewrite <- (rname_spec_eq c c' i E). apply H1. exact Hi.
  - intros n j L. destruct (H2 n j L) as [i [Hi ->]]. exists i. split; [exact Hi | apply rname_spec_eq; exact E].
Qed.

Lemma dir_view_d_spec c c' f v : c_spec c = c_spec c' -> dir_view_d c f v -> dir_view_d c' f v.
Proof.
  intros E. destruct v as [[cl cu]|]; cbn [dir_view_d]; [|tauto].
  intros [W R]. split; [exact W | exact (direct_view_spec c c' f _ E R)].
Qed.

(* ------------------------------------------------------------------ the directory seen as the state of a writer *)
Lemma numdinv_of_view c w cl cu : quiet w -> fs_wf (wfs w) -> direct_view c (wfs w) (cl ++ [cu]) ->
  exists j, lookup (wfs w) (rname c (length cl)) = Some j /\ plain (inode (wfs w) j)
            /\ NumDInv c w {| wino := j; wpend := []; wcap := c_cap c |} cl
            /\ cur_view w {| wino := j; wpend := []; wcap := c_cap c |} = cu.
Proof.
  intros Q W [Hcl Hon].
  assert (El : length (cl ++ [cu]) = S (length cl)) by (rewrite app_length; cbn [length]; lia).
  assert (Hl : length cl < length (cl ++ [cu])) by lia.
  destruct (Hcl (length cl) Hl) as [j [Lj [Pj Cj]]]. rewrite app_nth2, Nat.sub_diag in Cj by lia. cbn [nth] in Cj.
  exists j. split; [exact Lj|]. split; [exact Pj|]. split.
  - constructor; cbn [wino wpend wcap]; try assumption.
    + intros i Hi. assert (Hi' : i < length (cl ++ [cu])) by lia. destruct (Hcl i Hi') as [k [Lk [Pk Ck]]].
      exists k. split; [exact Lk|]. split; [exact Pk|]. rewrite app_nth1 in Ck by assumption. exact Ck.
    + intros n k L. destruct (Hon n k L) as [i [Hi E]]. exists i. split; [lia | exact E].
    + apply wr_ok_nil.
    + reflexivity.
  - unfold cur_view. cbn [wino wpend]. rewrite app_nil_r. exact Cj.
Qed.

(* ---- the first write initialises the writer: a directory left behind by earlier writers ---- *)
Lemma initialize_view_d c crit w cl cu :
  numdcfg c crit -> quiet w -> fs_wf (wfs w) -> direct_view c (wfs w) (cl ++ [cu]) ->
  (N.of_nat (length cl) <= u32_max)%N ->
  exists w' wr roll,
    initialize c w = (Ok (Active (Some (mk_rs (NSNumD (N.of_nat (length (fst (init_view c (Some (cl, cu))))))) roll)) wr
                                 (rname c (length (fst (init_view c (Some (cl, cu))))))), w')
    /\ NumDInv c w' wr (fst (init_view c (Some (cl, cu))))
    /\ cur_view w' wr = snd (init_view c (Some (cl, cu)))
    /\ roll_size_ok roll (length (snd (init_view c (Some (cl, cu)))))
    /\ same_env w w'
    /\ (forall m, crit = CSize m -> exists k, roll = RSize m k).
Proof.
  intros [Hrot [Hts [Hlink _]]] Q W R Hb.
  destruct (numdinv_of_view c w cl cu Q W R) as [j [Lj [Pj [I V]]]].
  set (wr0 := {| wino := j; wpend := []; wcap := c_cap c |}) in *.
  unfold initialize. rewrite Hrot. unfold init_naming.
  rewrite (listing_direct c w cl cu Hts Q R Hb). cbn [bind].
  rewrite (name_of_fixed c w) by assumption. fold (nm c (number_infix (N.of_nat (length cl)))). fold (rname c (length cl)).
  rewrite Lj. cbn [init_view]. destruct (c_append c) eqn:Happ; cbn [andb fst snd].
  - (* append: the file with the highest number is continued *)
    unfold open_log_file. rewrite (name_of_fixed c w) by assumption.
    fold (nm c (number_infix (N.of_nat (length cl)))). fold (rname c (length cl)).
    unfold do_symlink. rewrite Hlink, Happ.
    assert (Fo : file_of (wfs w) (rname c (length cl)) = Some (inode (wfs w) j)) by (unfold file_of; rewrite Lj; reflexivity).
    assert (D1 : match file_of (wfs w) (rname c (length cl)) with Some fl => fdir fl = false | None => True end).
    { rewrite Fo. apply Pj. }
    destruct (p_open_quiet w (rname c (length cl)) true Q D1) as [w2 [Eop [F2 S2]]]. rewrite Eop.
    assert (Eopen : open_append (wfs w) (rname c (length cl)) (wnow w) = (wfs w, j)) by (unfold open_append; rewrite Lj; reflexivity).
    rewrite Eopen in *. cbn [fst snd] in *. cbn [bind].
    assert (Fo2 : file_of (wfs w2) (rname c (length cl)) = Some (inode (wfs w) j)) by (rewrite F2; exact Fo).
    destruct (roll_new_append w2 crit (rname c (length cl)) _ (proj1 S2) Fo2) as [roll [Ern [Z RS]]]. rewrite Ern. cbn [bind].
    exists w2, wr0, roll. split; [reflexivity|].
    split; [apply (numdinv_env c w); [exact I | exact F2 | apply S2]|].
    split; [unfold cur_view; rewrite F2; exact V|].
    split. { rewrite <- V. unfold cur_view. cbn [wr0 wino wpend]. rewrite app_nil_r. exact Z. }
    split; [exact S2 | exact RS].
  - (* no append: the next number is started *)
    assert (Elen : length (cl ++ [cu]) = S (length cl)) by (rewrite app_length; cbn [length]; lia).
    rewrite Elen.
    unfold open_log_file. rewrite (name_of_fixed c w) by assumption.
    fold (nm c (number_infix (N.of_nat (length cl) + 1))). rewrite rname_S.
    destruct (rotate_numdinv c w wr0 cl (wnow w) I) as [Ht RI].
    destruct (open_fresh_quiet c w (rname c (S (length cl))) Q Hlink Ht) as [w2 [Eop [F2 S2]]].
    rewrite Eop. cbn [bind].
    destruct (roll_new_fresh w2 crit (rname c (S (length cl)))) as [roll [Ern [Z RS]]]. rewrite Ern. cbn [bind].
    assert (F3 : wfs w2 = append_ino (fst (create_file (wfs w) (rname c (S (length cl))) 0%N (wnow w))) (wino wr0) (wpend wr0)).
    { cbn [wr0 wpend]. rewrite append_ino_nil_id. exact F2. }
    destruct (RI w2 (proj1 S2) F3) as [I2 [V2 _]]. rewrite V in I2.
    eexists w2, _, roll.
    split. { replace (N.of_nat (S (length cl))) with (N.of_nat (length cl) + 1)%N by lia. reflexivity. }
    split; [exact I2|]. split; [exact V2|]. split; [exact Z|]. split; [exact S2 | exact RS].
Qed.

(* ------------------------------------------------------------------ one run and sequences of runs *)
Lemma dir_view_d_reads c f v : dir_view_d c f v -> direct_view c f (files_of v).
Proof. destruct v as [[cl cu]|]; cbn [dir_view_d files_of]; [tauto | intros D; apply direct_view_nil; tauto]. Qed.

Definition numd_restart :
  restart_layout numdcfg (fun n => NSNumD (N.of_nat n)) (fun c n => rname c n) NumDInv dir_view_d direct_view :=
  Build_restart_layout _ _ _ _ _ _
    (fun c crit H => ex_intro _ _ (ex_intro _ _ (proj1 H))) (fun c f D => D) dir_view_d_spec dir_view_d_reads
    (fun c w wr cl I P => conj (nd_wf _ _ _ _ I) (numdinv_direct_view c w wr cl I P))
    (fun c crit w cl cu Hcfg Q D Hb => initialize_view_d c crit w cl cu Hcfg Q (proj1 D) (proj2 D) Hb).

Lemma idle_d_spec c c' x v : c_spec c = c_spec c' -> IdleD c x v -> IdleD c' x v.
Proof. exact (lidle_spec _ _ _ _ _ _ numd_restart c c' x v). Qed.

(* a run without a write never leaves the state "nothing written" *)
Lemma g_run_no_write c v ops : Forall basic_op ops -> has_write ops = false -> forall obs, g_run c v None ops obs = None.
Proof.
  induction ops as [|o r IH]; intros Hops Hw obs; [reflexivity|].
  inversion Hops as [|o' r' Ho Hr]; subst. destruct obs as [|ob robs]; [reflexivity|].
  destruct o; try contradiction; cbn [has_write] in Hw; try discriminate; cbn [g_run g_step]; apply IH; assumption.
Qed.

Lemma one_run_d c crit x v ops :
  numdcfg c crit -> (N.of_nat (length (closed_of v)) <= u32_max)%N ->
  Forall basic_op ops -> IdleD c x v ->
  exists v', IdleD c (fst (run x (OStart c :: ops ++ [OStop]))) v'
    /\ flat v' = flat v ++ written ops
    /\ length (closed_of v') <= length (closed_of v) + S (length ops)
    /\ extends v v'
    /\ (has_write ops = false -> v' = v).
Proof.
  intros Hcfg Hb Hops Id.
  destruct (lone_run _ _ _ _ numd_layout _ _ numd_restart c crit x v ops Hcfg Hb Hops Id) as [v' [Id' [F [P [X [obs E]]]]]].
  exists v'. split; [exact Id'|]. split; [exact F|]. split; [exact P|]. split; [exact X|].
  intros Hw. rewrite E, (g_run_no_write c v ops Hops Hw). reflexivity.
Qed.

Lemma runs_rel_d sp : forall rs x v c0, c_spec c0 = sp ->
  Forall (fun r => c_spec (fst r) = sp /\ (exists crit, numdcfg (fst r) crit) /\ Forall basic_op (snd r)) rs -> IdleD c0 x v ->
  (N.of_nat (length (closed_of v) + length (runs_ops rs)) <= u32_max)%N ->
  exists v', IdleD c0 (fst (run x (runs_ops rs))) v' /\ flat v' = flat v ++ runs_written rs /\ extends v v'
    /\ length (closed_of v') <= length (closed_of v) + length (runs_ops rs).
Proof. exact (lruns_rel _ _ _ _ numd_layout _ _ numd_restart sp). Qed.

Lemma idle_d0 c t0 off : IdleD c (sys0 t0 off) None.
Proof. cbn. repeat split. Qed.

Lemma idle_d_reads sp c0 x v : c_spec c0 = sp -> IdleD c0 x v ->
  (forall c, c_spec c = sp -> direct_view c (wfs (s_w x)) (files_of v)) /\ concat (files_of v) = flat v.
Proof. exact (lidle_reads _ _ _ _ _ _ numd_restart sp c0 x v). Qed.

(* Any number of runs on the same directory, each with its own configuration (append or not, any criterion, any buffer
   capacity; the same file spec), runs without a write included: afterwards the directory consists exactly of
   r00000 .. r(n), and these files hold, in number order, everything that all runs have written.
   The bound on the length of the history is needed for the same reason as for Numbers naming (numbers_restarts_partial):
   the index read back from a listed file name is parsed as u32 and counts as 0 when it does not fit
   (NumRestart.index_beyond_u32_reads_as_0). *)
Theorem numbersdirect_restarts_partial sp t0 off rs :
  (N.of_nat (length (runs_ops rs)) <= u32_max)%N ->
  Forall (fun r => c_spec (fst r) = sp /\ (exists crit, numdcfg (fst r) crit) /\ Forall basic_op (snd r)) rs ->
  exists files,
    (forall c, c_spec c = sp -> direct_view c (wfs (s_w (fst (run (sys0 t0 off) (runs_ops rs))))) files)
    /\ concat files = runs_written rs.
Proof. exact (lrestarts_partial _ _ _ _ numd_layout _ _ numd_restart sp (sys0 t0 off) rs (idle_d0 _ t0 off)). Qed.

(* No file name is reused, no earlier file is touched: whatever further runs follow, every file keeps its number; all
   files but the newest keep their content, the newest one is at most appended to (by a run with append). *)
Theorem numbersdirect_restarts_keep sp t0 off rs1 rs2 :
  (N.of_nat (length (runs_ops (rs1 ++ rs2))) <= u32_max)%N ->
  Forall (fun r => c_spec (fst r) = sp /\ (exists crit, numdcfg (fst r) crit) /\ Forall basic_op (snd r)) (rs1 ++ rs2) ->
  exists files1 files2,
    (forall c, c_spec c = sp -> direct_view c (wfs (s_w (fst (run (sys0 t0 off) (runs_ops rs1))))) files1)
    /\ concat files1 = runs_written rs1
    /\ (forall c, c_spec c = sp -> direct_view c (wfs (s_w (fst (run (sys0 t0 off) (runs_ops (rs1 ++ rs2)))))) files2)
    /\ concat files2 = runs_written (rs1 ++ rs2)
    /\ (files1 = [] \/ exists closed cur t more, files1 = closed ++ [cur] /\ files2 = closed ++ [cur ++ t] ++ more).
Proof. exact (lrestarts_keep _ _ _ _ numd_layout _ _ numd_restart sp (sys0 t0 off) rs1 rs2 (idle_d0 _ t0 off)). Qed.

(* what one more run does to a directory left behind by earlier runs, in terms of the files:
   without a write nothing changes; otherwise the newest file is continued (append) or a new number is started *)
Theorem numbersdirect_one_more_run sp t0 off rs c ops :
  (N.of_nat (length (runs_ops (rs ++ [(c, ops)]))) <= u32_max)%N ->
  Forall (fun r => c_spec (fst r) = sp /\ (exists crit, numdcfg (fst r) crit) /\ Forall basic_op (snd r)) (rs ++ [(c, ops)]) ->
  exists files1 files2,
    direct_view c (wfs (s_w (fst (run (sys0 t0 off) (runs_ops rs))))) files1
    /\ direct_view c (wfs (s_w (fst (run (sys0 t0 off) (runs_ops (rs ++ [(c, ops)])))))) files2
    /\ concat files2 = concat files1 ++ written ops
    /\ (has_write ops = false -> files2 = files1).
Proof.
  intros Hb Hrs. apply Forall_app in Hrs. destruct Hrs as [Hrs1 Hrs2].
  inversion Hrs2 as [|r0 r' [Ec [[crit Hcfg] Hops]] _]; subst. cbn [fst snd] in *.
  rewrite runs_ops_app, app_length in Hb.
  assert (Hb1 : (N.of_nat (length (closed_of None) + length (runs_ops rs)) <= u32_max)%N) by (cbn [closed_of length]; lia).
  destruct (runs_rel_d (c_spec c) rs (sys0 t0 off) None c eq_refl Hrs1 (idle_d0 _ t0 off) Hb1) as [v1 [Id1 [F1 [_ P1]]]].
  rewrite runs_ops_app, run_app. destruct (run (sys0 t0 off) (runs_ops rs)) as [x1 obs1]. cbn [fst] in *.
  assert (Hb2 : (N.of_nat (length (closed_of v1)) <= u32_max)%N) by (cbn [closed_of length] in P1; lia).
  destruct (one_run_d c crit x1 v1 ops Hcfg Hb2 Hops Id1) as [v2 [Id2 [F2 [_ [_ Hno]]]]].
  cbn [runs_ops]. rewrite app_nil_r.
  replace (OStart c :: ops ++ OStop :: []) with (OStart c :: ops ++ [OStop]) by reflexivity.
  destruct (run x1 (OStart c :: ops ++ [OStop])) as [x2 obs2]. cbn [fst] in *.
  destruct (idle_d_reads (c_spec c) c _ v1 eq_refl Id1) as [R1 C1]. destruct (idle_d_reads (c_spec c) c _ v2 eq_refl Id2) as [R2 C2].
  exists (files_of v1), (files_of v2). split; [apply R1; reflexivity|]. split; [apply R2; reflexivity|].
  split; [rewrite C1, C2; exact F2|]. intros Hw. rewrite (Hno Hw). reflexivity.
Qed.

Print Assumptions numbersdirect_restarts_partial.
Print Assumptions numbersdirect_restarts_keep.
Print Assumptions numbersdirect_one_more_run.

(* ------------------------------------------------------------------ examples *)
Open Scope string_scope.

(* the hypotheses of the theorems can be met: four runs with different configurations, one of them appending, one
   without a write *)
Definition exd_rs : list (config * list op) :=
  [ (exd_cfg (ex_sp "log") false (CSize 3) None, [OWrite (bs "abcd"); OWrite (bs "ef"); OTrigger; OWrite (bs "g")]);
    (exd_cfg (ex_sp "log") true (CSize 1) (Some 8%nat), [OTick 5; OFlush; OWrite (bs "hi"); OWrite (bs "j")]);
    (exd_cfg (ex_sp "log") false (CAge ADay) None, [OSnap]);
    (exd_cfg (ex_sp "log") false (CAgeOrSize AHour 100) (Some 2%nat), [OPlain (bs "k")]) ].

Lemma exd_rs_ok : Forall (fun r => c_spec (fst r) = ex_sp "log" /\ (exists crit, numdcfg (fst r) crit) /\ Forall basic_op (snd r)) exd_rs.
Proof.
  unfold exd_rs. repeat (apply Forall_cons; [split; [reflexivity|]; split; [eexists; repeat split|]; repeat constructor|]).
  apply Forall_nil.
Qed.

Example direct_restarts_instance :
  exists files,
    (forall c, c_spec c = ex_sp "log" -> direct_view c (wfs (s_w (fst (run (sys0 0 0) (runs_ops exd_rs))))) files)
    /\ concat files = bs "abcdefghijk".
Proof.
  apply (numbersdirect_restarts_partial (ex_sp "log") 0 0 exd_rs); [vm_compute; discriminate | exact exd_rs_ok].
Qed.

(* the directory of that history: abcd | ef | g, the appending run continues "g" in r00002 and then rotates ("ghi" is
   larger than 1), the run without a write changes nothing, the last run (no append) starts r00004 *)
Example direct_restarts_instance_dir :
  snap_of (fst (run (sys0 0 0) (runs_ops exd_rs)))
  = [ (bs "app_r00000.log", 0%N, bs "abcd"); (bs "app_r00001.log", 0%N, bs "ef"); (bs "app_r00002.log", 0%N, bs "ghi");
      (bs "app_r00003.log", 0%N, bs "j"); (bs "app_r00004.log", 0%N, bs "k") ].
Proof. vm_compute. reflexivity. Qed.

(* a suffix that contains "_r", no append: every run starts the next number *)
Definition exd_ur : list (config * list op) :=
  [ (exd_cfg (ex_sp "x_r5") false (CSize 100) None, [OWrite (bs "a"); OTrigger; OWrite (bs "b")]);
    (exd_cfg (ex_sp "x_r5") false (CSize 100) None, [OWrite (bs "c")]);
    (exd_cfg (ex_sp "x_r5") true (CSize 100) None, [OWrite (bs "d")]) ].

Example direct_suffix_with_ur_dir :
  snap_of (fst (run (sys0 0 0) (runs_ops exd_ur)))
  = [ (bs "app_r00000.x_r5", 0%N, bs "a"); (bs "app_r00001.x_r5", 0%N, bs "b"); (bs "app_r00002.x_r5", 0%N, bs "cd") ].
Proof. vm_compute. reflexivity. Qed.
