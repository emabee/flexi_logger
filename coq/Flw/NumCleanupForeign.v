(* Files that are not members of the logger's file family are ignored - Numbers naming WITH a cleanup strategy:
   the cleanup lists, removes and compresses family files only; the archive name of a listed file is a family name, too. *)
Require Import FL.Base.Bytes FL.Base.BytesFacts FL.Base.PathName FL.Fs.Fs FL.Fs.FsFacts FL.Time.Civil FL.Time.TsFormat
  FL.Names.FileSpec FL.Names.NamesFacts FL.Names.SortFacts FL.Names.FamilyFacts FL.Flw.Model FL.Flw.ModelFacts FL.Flw.NumFs
  FL.Flw.NumInv FL.Flw.Run FL.Flw.RunFacts FL.Flw.NumRun FL.Oracles.O_Flw FL.Flw.NumTheorems FL.Flw.NumListing FL.Flw.CleanupFacts
  FL.Flw.NumCleanupNames FL.Flw.NumCleanupStep FL.Flw.NumCleanupRun FL.Flw.NumCleanup
  FL.Flw.ForeignFs FL.Flw.ForeignModel FL.Flw.NumForeign.
From Coq Require Import ZifyN ZifyNat ZifyBool.
Open Scope nat_scope.

(* ---- the abstract view of a prefix of the history has no more closed files than that of the whole ---- *)
Lemma a_run_app : forall l1 l2 a o1 o2, length o1 = length l1 ->
  a_run a (l1 ++ l2) (o1 ++ o2) = a_run (a_run a l1 o1) l2 o2.
Proof.
  induction l1 as [|x l1 IH]; intros l2 a [|y o1] o2 H; cbn [length] in H; try discriminate; [reflexivity|].
  cbn [app a_run]. apply IH. lia.
Qed.

Lemma nclosed_app l1 l2 x :
  nclosed (a_run None l1 (snd (run x l1))) <= nclosed (a_run None (l1 ++ l2) (snd (run x (l1 ++ l2)))).
Proof.
  rewrite run_app. pose proof (run_length l1 x) as L. destruct (run x l1) as [x1 o1]. destruct (run x1 l2) as [x2 o2].
  cbn [snd] in *. rewrite a_run_app by exact L. apply nclosed_run.
Qed.

Lemma nclosed_prefix ops x i :
  nclosed (a_run None (firstn i ops) (snd (run x (firstn i ops)))) <= nclosed (a_run None ops (snd (run x ops))).
Proof. pose proof (nclosed_app (firstn i ops) (skipn i ops) x) as H. rewrite firstn_skipn in H. exact H. Qed.

Lemma sfx_ok_not_gz' sp : sfx_ok sp -> fsfx sp <> Some gz_sfx.
Proof. intros H E. pose proof (sfx_ok_not_gz sp gz_sfx H E) as B. rewrite beq_refl in B. discriminate. Qed.

(* ---- the states related to an abstract view are of the kind considered ---- *)
Lemma relk_fam fn c crit k x a : (forall n, In n (fnames fn) -> num_member c n = false) ->
  (klim k = None \/ sfx_ok (c_spec c)) ->
  RelK c crit k x a -> fam_sys fn c k x.
Proof.
  intros Hforeign Hs [_ [_ R]]. split.
  - intros s Es. destruct a as [[closed cur]|].
    + destruct R as [wr [roll [E _]]]. rewrite E in Es. injection Es as <-. repeat split. cbn. eauto.
    + destruct R as [E _]. rewrite E in Es. injection Es as <-. repeat split.
  - intros n Hn. destruct a as [[closed cur]|].
    + destruct R as [wr [roll [_ [I _]]]]. apply dir_names_lookup in Hn. destruct Hn as [j Hj].
      destruct (kd_only _ _ _ _ _ (nk_dir _ _ _ _ _ _ I) n j Hj) as [->|[[i [_ ->]]|[i [Hi ->]]]].
      * exact (cname_own fn c Hforeign).
      * apply (rname_own fn c Hforeign).
      * destruct Hs as [Hs|Hs].
        -- unfold k_lo, k_mid in Hi. rewrite Hs in Hi. lia.
        -- intros Hf. pose proof (foreign_gz fn c Hforeign 0%Z _ Hf) as Q. rewrite (qf_gname_gz 0%Z c i Hs) in Q. discriminate.
    + destruct R as [_ [_ [E _]]]. unfold dir_names in Hn. rewrite E in Hn. destruct Hn.
Qed.

(* The theorem.  Hypotheses as for numbers_cleanup_stream (kside: with a cleanup the suffix is not gz and does not end
   with .gz), and the foreign-name condition of numbers_foreign_ignored. *)
Theorem numbers_cleanup_foreign_ignored c crit k t0 off foreign ops :
  numkcfg c crit k -> Forall basic_op ops ->
  kside c k (nclosed (a_run None ops (snd (run (fst (step (sys0 t0 off) (OStart c))) ops)))) ->
  NoDup (List.map fst foreign) ->
  (forall n, In n (List.map fst foreign) -> num_member c n = false) ->
  let ops' := OStart c :: ops ++ [OStop] in
  let rf := run (sys0f t0 off foreign) ops' in
  let r0 := run (sys0 t0 off) ops' in
  (* 1: the same observations; a snapshot shows the foreign files in addition *)
  List.map (strip_obs (List.map fst foreign)) (snd rf) = snd r0
  /\ (Forall (fun o => o <> OSnap) ops -> snd rf = snd r0)
  (* 2: the foreign files are in place, unchanged *)
  /\ (forall n d, In (n, d) foreign -> file_of (wfs (s_w (fst rf))) n = Some (plain_file t0 d))
  (* 3: every other name is what the run in the empty directory makes of it *)
  /\ (forall n, ~ In n (List.map fst foreign) -> file_of (wfs (s_w (fst rf))) n = file_of (wfs (s_w (fst r0))) n)
  /\ (forall n, In n (List.map fst foreign) -> file_of (wfs (s_w (fst r0))) n = None)
  (* the whole state: the run is the embedding of the run in the empty directory *)
  /\ fst rf = embedx (names (fs0f t0 foreign)) (inodes (fs0f t0 foreign)) (fst r0).
Proof.
  intros Hcfg Hb Hside ND Hfor. pose proof Hcfg as (Hrot & Hts & Hlink & Hasync & Hbg).
  pose proof (fs0f_names t0 foreign ND) as Hd.
  assert (Hforeign : forall n, In n (fnames (names (fs0f t0 foreign))) -> num_member c n = false) by (rewrite Hd; exact Hfor).
  assert (Hs : klim k = None \/ sfx_ok (c_spec c)).
  { unfold kside in Hside. destruct (klim k); [right; apply Hside | left; reflexivity]. }
  assert (Hk : k = KNever \/ (c_bg c = false /\ fsfx (c_spec c) <> Some gz_sfx)).
  { destruct Hs as [Hs|Hs]; [left; apply klim_none; exact Hs | right; split; [exact Hbg | apply sfx_ok_not_gz'; exact Hs]]. }
  apply (foreign_ignored_g c (good_sys c k) t0 off foreign ops Hts Hasync (good_sys_cfg c k)
           (good_sys_write _ _ c crit k Hrot Hts Hlink Hk Hforeign) (good_sys_mount _ _ c k Hts Hlink Hk Hforeign) Hb ND).
  - intros i. eapply relk_fam; [exact Hforeign | exact Hs |].
    apply (run_rel_k c crit k Hcfg (firstn i ops) _ None (start_rel_k c crit k t0 off)).
    + apply Forall_firstn'. exact Hb.
    + eapply kside_le; [apply nclosed_prefix | exact Hside].
  - intros n Hn. rewrite <- Hd in Hn.
    pose proof (numbers_cleanup_stream c crit k t0 off ops Hcfg Hb Hside) as [_ V].
    set (f := wfs (s_w (fst (run (sys0 t0 off) (OStart c :: ops ++ [OStop]))))) in *.
    destruct (lookup f n) as [j|] eqn:Ej; [exfalso|reflexivity].
    destruct (a_run None ops (snd (run (fst (step (sys0 t0 off) (OStart c))) ops))) as [[closed cur]|].
    + destruct V as [KD _]. destruct (kd_only _ _ _ _ _ KD n j Ej) as [->|[[i [_ ->]]|[i [Hi ->]]]].
      * exact (cname_own _ c Hforeign Hn).
      * exact (rname_own _ c Hforeign _ Hn).
      * destruct Hs as [Hs|Hs].
        -- unfold k_lo, k_mid in Hi. rewrite Hs in Hi. lia.
        -- pose proof (foreign_gz _ c Hforeign 0%Z _ Hn) as Q. rewrite (qf_gname_gz 0%Z c i Hs) in Q. discriminate.
    + unfold lookup in Ej. rewrite V in Ej. discriminate.
Qed.
Print Assumptions numbers_cleanup_foreign_ignored.

(* numbers_cleanup_properties carries over: what the directory with the foreign files holds after the run.
   closed, cur: the reader's view that the run would leave without cleanup; n plain files and m archives are kept. *)
Theorem numbers_cleanup_foreign_dir c crit k n m t0 off foreign ops closed cur :
  numkcfg c crit k -> klim k = Some (n, m) -> Forall basic_op ops ->
  sfx_ok (c_spec c) ->
  a_run None ops (snd (run (fst (step (sys0 t0 off) (OStart c))) ops)) = Some (closed, cur) ->
  NoDup (List.map fst foreign) ->
  (forall x, In x (List.map fst foreign) -> num_member c x = false) ->
  let ff := wfs (s_w (fst (run (sys0f t0 off foreign) (OStart c :: ops ++ [OStop])))) in
  let L := length closed in let lo := L - (n + m) in let mid := L - n in
  concat closed ++ cur = written ops
  (* exactly these names exist *)
  /\ (forall x, file_of ff x <> None <->
        In x (List.map fst foreign) \/ x = cname c \/ (exists i, mid <= i < L /\ x = rname c i)
        \/ (exists i, lo <= i < mid /\ x = gname c i))
  (* the foreign files as they were *)
  /\ (forall x d, In (x, d) foreign -> file_of ff x = Some (plain_file t0 d))
  (* the newest n closed files as they were closed, the next m as complete archives, the current file *)
  /\ (forall i, mid <= i < L ->
        exists fl, file_of ff (rname c i) = Some fl /\ fdata fl = nth i closed [] /\ fgz fl = 0%N /\ fdir fl = false)
  /\ (forall i, lo <= i < mid ->
        exists fl, file_of ff (gname c i) = Some fl /\ fdata fl = nth i closed [] /\ fgz fl = 1%N /\ fdir fl = false)
  /\ (exists fl, file_of ff (cname c) = Some fl /\ fdata fl = cur /\ fgz fl = 0%N /\ fdir fl = false).
Proof.
  intros Hcfg Hk Hb Hsfx Ea ND Hfor ff L lo mid.
  assert (Hside : kside c k (nclosed (a_run None ops (snd (run (fst (step (sys0 t0 off) (OStart c))) ops))))).
  { rewrite Ea. unfold kside. rewrite Hk. exact Hsfx. }
  destruct (numbers_cleanup_foreign_ignored c crit k t0 off foreign ops Hcfg Hb Hside ND Hfor) as (_ & _ & F2 & F3 & F4 & _).
  fold ff in F2, F3.
  destruct (numbers_cleanup_properties c crit k n m t0 off ops closed cur Hcfg Hk Hb Hsfx Ea)
    as (P0 & Pn & _ & _ & _ & _ & Pp & Pa & _ & _ & Pc).
  set (f0 := wfs (s_w (fst (run (sys0 t0 off) (OStart c :: ops ++ [OStop]))))) in *. fold L lo mid in Pn, Pp, Pa.
  assert (Hrn : forall i, ~ In (rname c i) (List.map fst foreign)).
  { intros i Hi. apply Hfor in Hi. rewrite member_rname in Hi. discriminate. }
  assert (Hcn : ~ In (cname c) (List.map fst foreign)).
  { intros Hi. apply Hfor in Hi. rewrite member_cname in Hi. discriminate. }
  assert (Hgn : forall i, ~ In (gname c i) (List.map fst foreign)).
  { intros i Hi. apply Hfor in Hi. unfold num_member in Hi. rewrite (qf_gname_gz 0%Z c i Hsfx) in Hi. rewrite orb_true_r in Hi. discriminate. }
  split; [exact P0|]. split; [|split; [exact F2|split; [|split]]].
  - exact (exists_iff foreign ff f0 t0 F2 F3 _ Pn).
  - intros i Hi. rewrite (F3 _ (Hrn i)). destruct (Pp i Hi) as [_ H]. exact H.
  - intros i Hi. rewrite (F3 _ (Hgn i)). destruct (Pa i Hi) as [_ H]. exact H.
  - rewrite (F3 _ Hcn). exact Pc.
Qed.
Print Assumptions numbers_cleanup_foreign_dir.

(* ------------------------------------------------------------------ example *)
Import String.StringSyntax.
Open Scope string_scope.
(* one plain rotated file and one archive are kept *)
Definition ex_k : config :=
  {| c_spec := c_spec ex_c; c_append := false; c_cap := None; c_rot := Some (CSize 3, NNumbers, KLogGz 1 1); c_utc := false;
     c_symlink := false; c_bg := false; c_async := false; c_start := None |}.

(* the near misses of ex_foreign, and near misses of the archive names *)
Definition ex_foreign_k : list (bytes * bytes) :=
  ex_foreign ++ [ (bs "a_r00000.log.gz.bak", bs "p"); (bs "a_r00001.gz", bs "o"); (bs "a_r00001.log.gzip", bs "n") ].

Example cleanup_foreign_hypotheses :
  numkcfg ex_k (CSize 3) (KLogGz 1 1) /\ Forall basic_op ex_ops
  /\ kside ex_k (KLogGz 1 1) (nclosed (a_run None ex_ops (snd (run (fst (step (sys0 0 0) (OStart ex_k))) ex_ops))))
  /\ NoDup (List.map fst ex_foreign_k)
  /\ (forall n, In n (List.map fst ex_foreign_k) -> num_member ex_k n = false).
Proof.
  split; [repeat split|]. split; [repeat constructor|]. split; [|split].
  - vm_compute; reflexivity.
  - apply nodupb_sound. vm_compute. reflexivity.
  - apply forallb_false. vm_compute. reflexivity.
Qed.

Example cleanup_foreign_instance :
  List.map (strip_obs (List.map fst ex_foreign_k)) (snd (run (sys0f 0 0 ex_foreign_k) (OStart ex_k :: ex_ops ++ [OStop])))
  = snd (run (sys0 0 0) (OStart ex_k :: ex_ops ++ [OStop])).
Proof.
  destruct cleanup_foreign_hypotheses as (H1 & H2 & H3 & H4 & H5).
  exact (proj1 (numbers_cleanup_foreign_ignored ex_k (CSize 3) (KLogGz 1 1) 0 0 ex_foreign_k ex_ops H1 H2 H3 H4 H5)).
Qed.

(* computed: the cleanup has removed r00000, compressed r00001 and kept r00002 - and nothing else: a_r00001x.log,
   a_r1backup.log, a_r1x.log and a_r2024-02-29_23-59-58.log, which the number filter took for numbered files before its
   repair (and the cleanup would have counted, compressed or deleted), are left alone *)
Example cleanup_foreign_instance_dir :
  ex_snap (fst (run (sys0f 0 0 ex_foreign_k) (OStart ex_k :: ex_ops ++ [OStop])))
  = [ (bs "a.log", 0%N, bs "q");
      (bs "a_r00000.log.gz.bak", 0%N, bs "p");
      (bs "a_r00001", 0%N, bs "t");
      (bs "a_r00001.gz", 0%N, bs "o");
      (bs "a_r00001.log.bak", 0%N, bs "w");
      (bs "a_r00001.log.gz", 1%N, bs "ef");
      (bs "a_r00001.log.gzip", 0%N, bs "n");
      (bs "a_r00001.txt", 0%N, bs "z");
      (bs "a_r00001x.log", 0%N, bs "3");
      (bs "a_r00002.log", 0%N, bs "ghij");
      (bs "a_r1backup.log", 0%N, bs "2");
      (bs "a_r1x.log", 0%N, bs "1");
      (bs "a_r2024-02-29_23-59-58.log", 0%N, bs "4");
      (bs "a_rCURRENT.log", 0%N, bs "k");
      (bs "a_rCURRENT.log.gz", 0%N, bs "s");
      (bs "a_rx.log", 0%N, bs "x");
      (bs "ax_r00001.log", 0%N, bs "v");
      (bs "b.log", 0%N, bs "y") ]
  /\ ex_snap (fst (run (sys0 0 0) (OStart ex_k :: ex_ops ++ [OStop])))
  = [ (bs "a_r00001.log.gz", 1%N, bs "ef"); (bs "a_r00002.log", 0%N, bs "ghij"); (bs "a_rCURRENT.log", 0%N, bs "k") ].
Proof. vm_compute. split; reflexivity. Qed.
