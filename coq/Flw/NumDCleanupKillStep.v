(* NumbersDirect naming with a cleanup strategy, killed process (C11), part 1: the cleanup with a kill budget.
   The directory descriptions xdir / kst / kill_view of Numbers naming (NumCleanupKillDir.v, NumCleanupKillStep.v) are used
   with ocur = None (there is no rCURRENT) and the list `all` of the contents of ALL numbered files, the file being written
   (the newest number) included.  The cleanup is told the file being written (cur = Some r<L-1>) and skips it; with the
   effective limits klimd (n >= 1) it is at position 0 of the listing and kept anyway.
   kstd: kst and "the file being written is untouched" (same inode, same content). *)
Require Import FL.Base.Bytes FL.Base.BytesFacts FL.Base.PathName FL.Fs.Fs FL.Fs.FsFacts FL.Time.TsFormat
  FL.Names.FileSpec FL.Names.SortFacts FL.Names.FamilyFacts FL.Flw.Model FL.Flw.ModelFacts FL.Flw.NumFs
  FL.Flw.NumInv FL.Flw.Run FL.Flw.NumRun FL.Flw.NumListing FL.Flw.CleanupFacts
  FL.Flw.NumCleanupNames FL.Flw.NumCleanupStep FL.Flw.NumCleanupRun FL.Flw.KillFacts FL.Flw.NumCleanupKillDir
  FL.Flw.NumCleanupKillStep FL.Flw.NumDCleanupStep.
From Coq Require Import ZifyN ZifyNat ZifyBool.
Open Scope nat_scope.

(* ------------------------------------------------------------------ kst + the newest numbered file is untouched *)
Definition kstd (c : config) (f0 f : fs) (all : list bytes) (lo mid : nat) (red : option bool) : Prop :=
  kstx c (Some (length all - 1)) f0 f all None lo mid red.

(* ------------------------------------------------------------------ one cleanup with a budget *)
(* all: the contents of all numbered files, the one being written (the newest, r<L-1>) included; (n, m) the effective limits *)
Lemma cleanup_budget_d c k n m q all j :
  fts (c_spec c) = false -> klimd k = Some (n, m) -> sfx_ok (c_spec c) -> quiet q ->
  kstd c (wfs q) (wfs q) all (length all - 1 - (n + m)) (length all - 1 - n) None ->
  exists r w', cleanup_impl c (kw q (S j)) k IFNum (Some (rname c (length all - 1))) = (r, w') /\
    ( (exists f' j', w' = kw (set_fs q f') (S j') /\ r = Ok tt
                      /\ kstd c (wfs q) f' all (length all - (n + m)) (length all - n) None)
      \/ (exists f' lo mid red, w' = kw (set_fs q f') 0 /\ kstd c (wfs q) f' all lo mid red
                                /\ lo <= length all - (n + m) /\ mid <= length all - n) ).
Proof.
  intros Hts Hk Hsfx Q KS.
  exact (cleanup_budget_x c k (Some (length all - 1)) n m q all None j Hts Hk Hsfx Q (conj eq_refl (klimd_pos _ _ _ Hk)) KS).
Qed.
