(* The standard time-stamp infix is read back: parse_ts_local std_fmt (the parser of the listing filter, of
   timestamp_from_ts_infix and of the oracle valid_infix) accepts the text that format_ts std_fmt produces for an instant of
   the years 1970..9999, and returns this instant (local seconds). *)
Require Import FL.Base.Bytes FL.Base.BytesFacts FL.Time.Civil FL.Time.CivilFacts FL.Time.Period FL.Time.TsFormat
  FL.Names.NamesFacts FL.Names.SortFacts FL.Flw.TsTime.
From Coq Require Import ZifyN ZifyNat ZifyBool.
Open Scope Z_scope.

Lemma civil_of_day_exists t : cd (civil_of t) <= days_in_month (cy (civil_of t)) (cmo (civil_of t)).
Proof. pose proof (civil_from_days_valid (t / 86400)) as H. rewrite civil_of_date in H. apply H. Qed.

(* ------------------------------------------------------------------ scanning digits *)
Lemma take_digits_exact : forall (D rest acc : bytes), all_digits D = true ->
  take_digits (length D) (D ++ rest) acc = (acc ++ D, rest).
Proof.
  induction D as [|d D IH]; intros rest acc H; cbn [length app take_digits].
  - rewrite app_nil_r. destruct rest; reflexivity.
  - cbn [all_digits] in H. apply andb_prop in H. destruct H as [H1 H2]. rewrite H1, IH by exact H2.
    rewrite <- app_assoc. reflexivity.
Qed.

Lemma scan_number_exact n (D rest : bytes) : length D = n -> D <> [] -> all_digits D = true ->
  scan_number n (D ++ rest) = Some (Z.of_N (dec_value D), rest).
Proof.
  intros <- Hne H. unfold scan_number. rewrite take_digits_exact by exact H. cbn [app]. destruct D; [congruence | reflexivity].
Qed.

Lemma digit_not_ws d : is_digit d = true -> is_ws d = false.
Proof. unfold is_digit, is_ws. lia. Qed.

Lemma trim_digits (D rest : bytes) : D <> [] -> all_digits D = true -> trim_start (D ++ rest) = D ++ rest.
Proof.
  destruct D as [|d D]; [congruence|]. intros _ H. cbn [all_digits] in H. apply andb_prop in H. destruct H as [H _].
  cbn [app trim_start]. rewrite (digit_not_ws d H). reflexivity.
Qed.

Lemma digit_cases d : is_digit d = true ->
  d = 48%N \/ d = 49%N \/ d = 50%N \/ d = 51%N \/ d = 52%N \/ d = 53%N \/ d = 54%N \/ d = 55%N \/ d = 56%N \/ d = 57%N.
Proof. unfold is_digit. lia. Qed.

(* %Y on a text that starts with a digit: neither sign nor white space *)
Lemma parse_year_digit d r p : is_digit d = true ->
  parse_item TY (d :: r) p =
  match scan_number 4 (d :: r) with
  | Some (v, r') => match set_field (py p) v with
                    | Some y => Some (r', {| py := y; pmo := pmo p; pd := pd p; ph := ph p; pmi := pmi p; ps := ps p |})
                    | None => None end
  | None => None
  end.
Proof.
  intros H. destruct (digit_cases d H) as [E|[E|[E|[E|[E|[E|[E|[E|[E|E]]]]]]]]]; subst d; reflexivity.
Qed.

Lemma len_nonempty {A} (l : list A) n : length l = S n -> l <> [].
Proof. destruct l; [discriminate | discriminate]. Qed.

Lemma parse_year (D rest : bytes) p : length D = 4%nat -> all_digits D = true -> py p = None ->
  parse_item TY (D ++ rest) p
  = Some (rest, {| py := Some (Z.of_N (dec_value D)); pmo := pmo p; pd := pd p; ph := ph p; pmi := pmi p; ps := ps p |}).
Proof.
  intros L H Hp. pose proof (len_nonempty D 3 L) as Hne.
  assert (E : exists d D', D = d :: D' /\ is_digit d = true).
  { destruct D as [|d D']; [congruence|]. cbn [all_digits] in H. apply andb_prop in H. exists d, D'. tauto. }
  destruct E as [d [D' [E Hd]]]. rewrite E at 1. cbn [app]. rewrite (parse_year_digit d _ p Hd).
  change (d :: D' ++ rest) with ((d :: D') ++ rest). rewrite <- E.
  rewrite (scan_number_exact 4 D rest L Hne H), Hp. reflexivity.
Qed.

(* ------------------------------------------------------------------ the six fields, then the whole text *)
Section Parse.
Variable c : civil.
Hypothesis Hc : civil_ok c.
Hypothesis Hd : cd c <= days_in_month (cy c) (cmo c).

Lemma scan2 z rest : 0 <= z <= 99 -> scan_number 2 (trim_start (pad_dec 2 z ++ rest)) = Some (z, rest).
Proof.
  intros Hz. pose proof (pad_dec_length2 z Hz) as L. pose proof (len_nonempty _ 1 L) as Hne.
  rewrite trim_digits by (auto; apply pad_dec_digits).
  rewrite (scan_number_exact 2 _ rest L Hne (pad_dec_digits 2 z)), pad_dec_value. f_equal. f_equal. lia.
Qed.

Lemma in_range_true lo hi v : lo <= v <= hi -> in_range lo hi v = true.
Proof. unfold in_range. lia. Qed.

Lemma parse_lit b r p : parse_item (TLit b) (b :: r) p = Some (r, p).
Proof. cbn [parse_item]. rewrite N.eqb_refl. reflexivity. Qed.

Lemma parse_items_cons i f s p :
  parse_items (i :: f) s p = match parse_item i s p with Some (s', p') => parse_items f s' p' | None => None end.
Proof. reflexivity. Qed.

Lemma parse_mo z rest p : 1 <= z <= 12 -> pmo p = None ->
  parse_item Tmo (pad_dec 2 z ++ rest) p = Some (rest, {| py := py p; pmo := Some z; pd := pd p; ph := ph p; pmi := pmi p; ps := ps p |}).
Proof. intros Hz Hp. cbn [parse_item]. rewrite scan2 by lia. rewrite in_range_true by lia. rewrite Hp. reflexivity. Qed.
Lemma parse_d z rest p : 1 <= z <= 31 -> pd p = None ->
  parse_item Td (pad_dec 2 z ++ rest) p = Some (rest, {| py := py p; pmo := pmo p; pd := Some z; ph := ph p; pmi := pmi p; ps := ps p |}).
Proof. intros Hz Hp. cbn [parse_item]. rewrite scan2 by lia. rewrite in_range_true by lia. rewrite Hp. reflexivity. Qed.
Lemma parse_h z rest p : 0 <= z <= 23 -> ph p = None ->
  parse_item TH (pad_dec 2 z ++ rest) p = Some (rest, {| py := py p; pmo := pmo p; pd := pd p; ph := Some z; pmi := pmi p; ps := ps p |}).
Proof. intros Hz Hp. cbn [parse_item]. rewrite scan2 by lia. rewrite in_range_true by lia. rewrite Hp. reflexivity. Qed.
Lemma parse_mi z rest p : 0 <= z <= 59 -> pmi p = None ->
  parse_item TMi (pad_dec 2 z ++ rest) p = Some (rest, {| py := py p; pmo := pmo p; pd := pd p; ph := ph p; pmi := Some z; ps := ps p |}).
Proof. intros Hz Hp. cbn [parse_item]. rewrite scan2 by lia. rewrite in_range_true by lia. rewrite Hp. reflexivity. Qed.
Lemma parse_s z rest p : 0 <= z <= 59 -> ps p = None ->
  parse_item TS (pad_dec 2 z ++ rest) p = Some (rest, {| py := py p; pmo := pmo p; pd := pd p; ph := ph p; pmi := pmi p; ps := Some z |}).
Proof. intros Hz Hp. cbn [parse_item]. rewrite scan2 by lia. rewrite in_range_true by lia. rewrite Hp. reflexivity. Qed.

Theorem parse_std_text : parse_ts_local std_fmt (std_text c) = Some (secs_of_civil c).
Proof.
  destruct Hc as [Hy Hmo Hdd Hh Hmi Hs].
  assert (E : parse_items std_fmt (std_text c) parsed0
              = Some {| py := Some (cy c); pmo := Some (cmo c); pd := Some (cd c); ph := Some (ch c); pmi := Some (cmi c); ps := Some (cs c) |}).
  { unfold std_fmt, std_text.
    rewrite parse_items_cons, parse_lit. cbv beta iota.
    rewrite parse_items_cons, (parse_year _ _ parsed0 (pad_dec_length4 _ Hy) (pad_dec_digits 4 (cy c)) eq_refl), pad_dec_value. cbv beta iota.
    rewrite parse_items_cons, parse_lit. cbv beta iota.
    rewrite parse_items_cons, parse_mo by (auto; reflexivity). cbv beta iota.
    rewrite parse_items_cons, parse_lit. cbv beta iota.
    rewrite parse_items_cons, parse_d by (auto; reflexivity). cbv beta iota.
    rewrite parse_items_cons, parse_lit. cbv beta iota.
    rewrite parse_items_cons, parse_h by (auto; reflexivity). cbv beta iota.
    rewrite parse_items_cons, parse_lit. cbv beta iota.
    rewrite parse_items_cons, parse_mi by (auto; reflexivity). cbv beta iota.
    rewrite parse_items_cons, parse_lit. cbv beta iota.
    rewrite <- (app_nil_r (pad_dec 2 (cs c))).
    rewrite parse_items_cons, parse_s by (auto; reflexivity). cbv beta iota.
    cbn [parse_items py pmo pd ph pmi ps parsed0]. replace (Z.of_N (Z.to_N (cy c))) with (cy c) by lia. reflexivity. }
  unfold parse_ts_local. rewrite E. cbn [py pmo pd ph pmi ps].
  assert (Yk : year_ok (cy c) = true) by (unfold year_ok; apply in_range_true; lia).
  rewrite Yk. destruct (Z.leb_spec (cd c) (days_in_month (cy c) (cmo c))) as [_|X]; [|lia]. cbn [andb].
  destruct (Z.eqb_spec (cs c) 60) as [X|_]; [lia|]. unfold secs_of_civil. reflexivity.
Qed.
End Parse.

(* the infix of an instant is parsed back to the instant (as local seconds: shifted by the offset) *)
Theorem parse_tsx e t : in_years e t -> parse_ts_local std_fmt (tsx e t) = Some (t + e).
Proof.
  intros H. destruct (tsx_text e t H) as [-> Ok]. rewrite (parse_std_text _ Ok (civil_of_day_exists (t + e))).
  f_equal. apply secs_civil_roundtrip.
Qed.

(* ... and it is the canonical text of that instant: the infix filter of the time-stamp namings accepts it *)
Lemma canonical_tsx e t : in_years e t -> canonical_ts std_fmt (tsx e t) = true.
Proof. intros H. unfold canonical_ts. rewrite (parse_tsx e t H). unfold tsx. rewrite beq_refl. reflexivity. Qed.
Print Assumptions parse_tsx.

Example parse_tsx_instance : parse_ts_local std_fmt (tsx 7200 1700000000) = Some 1700007200.
Proof. apply parse_tsx. unfold in_years, sec_max. lia. Qed.
Print Assumptions parse_std_text.
