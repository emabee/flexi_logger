(* Numbered layouts (NumInv.layout: Numbers and NumbersDirect), age (and age-or-size) criterion: the refinement of the
   timed abstract view (tview, t_step, t_run), for any layout (Section Layout, LRelT) and for Numbers naming (RelT).
   The abstract view of NumRun (closed files, current content) is extended by the instant at which each file was
   started; the invariant additionally ties the roll state of the writer (`created`) to that instant.  The
   rotation decision of the model then is the decision `rotate_due` of the executable oracle O_Age. *)
Require Import FL.Base.Bytes FL.Fs.Fs FL.Time.Period FL.Names.FileSpec FL.Flw.Model FL.Flw.ModelFacts FL.Flw.NumInv
  FL.Flw.Run FL.Flw.RunFacts FL.Flw.NumRun FL.Oracles.O_Age.
Open Scope nat_scope.

(* ------------------------------------------------------------------ the roll state and the decision *)
(* the oracle's decision for a criterion *)
Definition due (crit : criterion) (off st : Z) (cu : bytes) (t : Z) : bool :=
  rotate_due (fst (crit_parts crit)) (snd (crit_parts crit)) off st cu t.

Lemma roll_decision crit w st roll (cu : bytes) :
  roll_ok crit st roll -> roll_size_ok roll (length cu) ->
  rotation_necessary w roll = due crit (woff w) st cu (wnow w).
Proof.
  intros Hr Hs. unfold due, rotate_due.
  destruct crit as [m|a|a m], roll as [m' k|a' cr|a' cr m' k]; cbn [roll_ok] in Hr; try contradiction;
    cbn [crit_parts fst snd rotation_necessary roll_size_ok] in *.
  - subst m' k. unfold size_rotation_necessary. reflexivity.
  - destruct Hr as [-> ->]. unfold age_rotation_necessary, local_civil. rewrite same_period_spec, Bool.orb_false_r. reflexivity.
  - destruct Hr as [-> [-> ->]]. subst k. unfold age_rotation_necessary, local_civil, size_rotation_necessary.
    rewrite same_period_spec. apply Bool.orb_comm.
Qed.

Lemma due_self crit off t : due crit off t [] t = false.
Proof.
  unfold due, rotate_due. destruct crit as [m|a|a m]; cbn [crit_parts fst snd length].
  - cbn [orb]. apply N.ltb_ge. lia.
  - rewrite Z.eqb_refl. reflexivity.
  - rewrite Z.eqb_refl. cbn [negb orb]. apply N.ltb_ge. lia.
Qed.

(* ------------------------------------------------------------------ the timed abstract view *)
Definition tfile := (Z * bytes)%type.                       (* (instant at which the file was started, content) *)
Definition tview := option (list tfile * tfile).            (* closed files in order, current file *)

Definition untime (v : tview) : aview :=
  match v with None => None | Some (cl, (_, cu)) => Some (List.map snd cl, cu) end.

(* the timed specification: one operation at clock value t *)
Definition t_step (crit : criterion) (off : Z) (v : tview) (t : Z) (o : op) : tview :=
  match o with
  | OWrite b | OPlain b =>
    match v with
    | None => Some ([], (t, b))
    | Some (cl, (st, cu)) =>
      if due crit off st cu t then Some (cl ++ [(st, cu)], (t, b)) else Some (cl, (st, cu ++ b))
    end
  | OTrigger => match v with Some (cl, cur) => Some (cl ++ [cur], (t, [])) | None => None end
  | _ => v
  end.

Definition clock (t : Z) (o : op) : Z := match o with OTick dt => (t + dt)%Z | _ => t end.
Definition clock_run (t : Z) (ops : list op) : Z := fold_left clock ops t.

Fixpoint t_run (crit : criterion) (off : Z) (v : tview) (t : Z) (ops : list op) : tview :=
  match ops with
  | [] => v
  | o :: r => t_run crit off (t_step crit off v t o) (clock t o) r
  end.

(* the rotation flag a write at t reports *)
Definition t_flag (crit : criterion) (off : Z) (v : tview) (t : Z) : bool :=
  match v with None => false | Some (_, (st, cu)) => due crit off st cu t end.

(* the timed step against the untimed one: the flag is the oracle's decision, and a new file starts at t *)
Lemma t_step_view crit off (cl : list tfile) (f : tfile) t o :
  let rot := due crit off (fst f) (snd f) t in
  exists cl' st' cu',
    t_step crit off (Some (cl, f)) t o = Some (cl', (st', cu'))
    /\ (List.map snd cl', cu') = v_step (List.map snd cl, snd f) o rot
    /\ st' = if replaced o rot then t else fst f.
Proof.
  destruct f as [st cu]. destruct o; cbn [t_step v_step replaced fst snd]; try destruct (due crit off st cu t);
    eexists _, _, _; (split; [reflexivity|]); rewrite ?map_app; split; reflexivity.
Qed.

(* ------------------------------------------------------------------ the invariant, for a numbered layout *)
Section Layout.
Variables (cfgp : config -> criterion -> Prop) (ns : nat -> naming_state) (cur : config -> nat -> bytes)
          (Inv : config -> world -> writer -> list bytes -> Prop).
Hypothesis L : layout cfgp ns cur Inv.

(* the roll state's `created` is the instant at which the current file was started *)
Definition LRelT (c : config) (crit : criterion) (x : sys) (v : tview) : Prop :=
  match v with
  | None => Fresh c x
  | Some (cl, (st, cu)) => exists roll, Act ns cur Inv c x (List.map snd cl, cu) 0 roll /\ roll_ok crit st roll
  end.

Lemma lrelT_rel c crit x v : LRelT c crit x v -> LRel ns cur Inv c crit x (untime v).
Proof.
  destruct v as [[cl [st cu]]|]; cbn [LRelT untime]; [|exact (fun F => F)].
  intros [roll [A K]]. apply (lrel_act ns cur Inv). exists roll. split; [exact A|].
  intros m Hm. exact (roll_ok_size _ _ _ _ K Hm).
Qed.

(* one basic operation *)
Lemma lstep_relT c crit x v o :
  cfgp c crit -> LRelT c crit x v -> basic_op o ->
  LRelT c crit (fst (step x o)) (t_step crit (woff (s_w x)) v (wnow (s_w x)) o)
  /\ woff (s_w (fst (step x o))) = woff (s_w x) /\ wnow (s_w (fst (step x o))) = clock (wnow (s_w x)) o
  /\ (forall b, (o = OWrite b \/ o = OPlain b) ->
        snd (step x o) = ObsRes 0 (t_flag crit (woff (s_w x)) v (wnow (s_w x)))).
Proof.
  intros Hcfg R Hb. destruct v as [[cl [st cu]]|]; cbn [LRelT] in R.
  - destruct R as [roll [A K]].
    assert (D : rotation_necessary (s_w x) roll = due crit (woff (s_w x)) st cu (wnow (s_w x))).
    { apply roll_decision; [exact K|]. destruct A as [_ [_ [wr [_ [_ [_ Z]]]]]]. exact Z. }
    destruct (step_act _ _ _ _ L c crit x _ 0 roll o Hcfg A Hb) as [roll' [A' [K' [Eo [Eoff Enow]]]]].
    rewrite ghost_none in A'.
    rewrite D in *.
    split; [|split; [exact Eoff | split; [exact Enow|]]].
    + destruct (t_step_view crit (woff (s_w x)) cl (st, cu) (wnow (s_w x)) o) as [cl' [st' [cu' [Et [Ev Est]]]]].
      cbn [fst snd] in Ev, Est.
      rewrite Et. cbn [LRelT]. exists roll'. rewrite Ev. split; [exact A'|]. rewrite Est. exact (proj2 K' st K).
    + intros b Ho. rewrite Eo. cbn [t_flag]. destruct Ho as [->| ->]; reflexivity.
  - destruct (step_fresh _ _ _ _ L c crit x o Hcfg R Hb) as [F' [Eo [Eoff Enow]]].
    split; [|split; [exact Eoff | split; [exact Enow|]]].
    + destruct o; try contradiction; exact F'.
    + intros b Ho. rewrite Eo. destruct Ho as [->| ->]; reflexivity.
Qed.

(* a whole run: the invariant, the clock, and every rotation flag *)
Lemma lrun_relT c crit : cfgp c crit -> forall ops x v, LRelT c crit x v -> Forall basic_op ops ->
  let off := woff (s_w x) in let t := wnow (s_w x) in
  LRelT c crit (fst (run x ops)) (t_run crit off v t ops)
  /\ woff (s_w (fst (run x ops))) = off /\ wnow (s_w (fst (run x ops))) = clock_run t ops
  /\ (forall i o, nth_error ops i = Some o -> forall b, (o = OWrite b \/ o = OPlain b) ->
        nth_error (snd (run x ops)) i
        = Some (ObsRes 0 (t_flag crit off (t_run crit off v t (firstn i ops)) (clock_run t (firstn i ops))))).
Proof.
  intros Hcfg. induction ops as [|o r IH]; intros x v R Hb; cbn zeta.
  - split; [exact R|]. split; [reflexivity|]. split; [reflexivity|]. intros i o H. destruct i; discriminate.
  - cbn [run]. inversion Hb as [|o' r' Ho Hr]; subst.
    destruct (lstep_relT c crit x v o Hcfg R Ho) as [R1 [O1 [N1 F1]]]. destruct (step x o) as [x1 ob] eqn:Est.
    cbn [fst snd] in *. specialize (IH x1 _ R1 Hr). cbn zeta in IH. rewrite O1, N1 in IH.
    destruct (run x1 r) as [x2 obs] eqn:Er. cbn [fst snd] in *.
    destruct IH as [IH1 [IH2 [IH3 IH4]]].
    split; [exact IH1|]. split; [exact IH2|]. split; [exact IH3|].
    intros i o0 Hi b Hw. destruct i as [|i].
    + cbn in Hi. injection Hi as <-. cbn [nth_error firstn t_run clock_run fold_left]. f_equal. exact (F1 b Hw).
    + cbn [nth_error firstn t_run clock_run fold_left] in *. exact (IH4 i o0 Hi b Hw).
Qed.
End Layout.

(* ------------------------------------------------------------------ Numbers naming *)
Definition RelT : config -> criterion -> sys -> tview -> Prop :=
  LRelT (fun n => NSNumR (N.of_nat n)) (fun c _ => cname c) NumInv.

Lemma RelT_Rel c crit x v : RelT c crit x v -> Rel c crit x (untime v).
Proof. exact (lrelT_rel _ _ _ c crit x v). Qed.

Lemma run_relT c crit : numcfg c crit -> forall ops x v, RelT c crit x v -> Forall basic_op ops ->
  let off := woff (s_w x) in let t := wnow (s_w x) in
  RelT c crit (fst (run x ops)) (t_run crit off v t ops)
  /\ woff (s_w (fst (run x ops))) = off /\ wnow (s_w (fst (run x ops))) = clock_run t ops
  /\ (forall i o, nth_error ops i = Some o -> forall b, (o = OWrite b \/ o = OPlain b) ->
        nth_error (snd (run x ops)) i
        = Some (ObsRes 0 (t_flag crit off (t_run crit off v t (firstn i ops)) (clock_run t (firstn i ops))))).
Proof. exact (lrun_relT _ _ _ _ num_layout c crit). Qed.
