(* Numbers naming WITH a cleanup strategy (KeepLogFiles n, KeepCompressedFiles m, or both), direct mode, a process
   that is killed at an arbitrary effect - rename, create, write, and inside the cleanup: remove_file, and the four
   effects of compress_file (create archive, copy, finish, remove original).
   Theorem numbers_cleanup_kill_keeps_acked: the directory left behind, read as the reader does (kill_view in
   NumCleanupKillDir.v), holds a tail of the acknowledged records that is at least as long as the limits allow. *)
Require Import FL.Base.Bytes FL.Base.BytesFacts FL.Base.PathName FL.Fs.Fs FL.Fs.FsFacts FL.Time.TsFormat
  FL.Names.FileSpec FL.Names.SortFacts FL.Names.FamilyFacts FL.Flw.Model FL.Flw.ModelFacts FL.Flw.NumFs
  FL.Flw.NumInv FL.Flw.Run FL.Flw.NumRun FL.Flw.NumListing FL.Flw.NumTheorems FL.Flw.CleanupFacts
  FL.Flw.NumCleanupNames FL.Flw.NumCleanupStep FL.Flw.NumCleanupRun FL.Flw.NumRestart FL.Flw.KillFacts FL.Flw.NumKill
  FL.Flw.NumCleanupKillDir FL.Flw.NumCleanupKillStep.
From Coq Require Import ZifyN ZifyNat ZifyBool.
Open Scope nat_scope.

(* ------------------------------------------------------------------ the directory of a killed process *)
Definition ocb (o : option bytes) : bytes := match o with Some cu => cu | None => [] end.

(* a well-formed file system that holds closed files in one of the shapes of xdir, not cleaned beyond the limits *)
Definition XD (c : config) (k : cleanup) (f : fs) (closed : list bytes) (ocur : option bytes) : Prop :=
  exists lo mid red, fs_wf f /\ nodup_names f /\ xdir c (file_of f) closed ocur lo mid red /\ uncl k (length closed) lo mid.

Definition DeadK (c : config) (k : cleanup) (w : world) (closed : list bytes) (ocur : option bytes) : Prop :=
  dead w /\ XD c k (wfs w) closed ocur.

Lemma kst_xd c k f0 f closed ocur lo mid red : kst c f0 f closed ocur lo mid red -> uncl k (length closed) lo mid ->
  XD c k f closed ocur.
Proof. intros [W Nd X _] U. exists lo, mid, red. auto. Qed.

Lemma numkinv_kst c q wr closed lo mid : NumKInv c q wr closed lo mid -> wpend wr = [] ->
  kst c (wfs q) (wfs q) closed (Some (cur_view q wr)) lo mid None.
Proof.
  intros [Q W Hc Hcp KD Hwr Hcap] P. constructor.
  - exact W.
  - exact (kd_nodup _ _ _ _ _ KD).
  - apply kdir_xdir; [exact KD|]. exists (wino wr). split; [exact Hc|]. split; [exact Hcp|].
    unfold cur_view. rewrite P, app_nil_r. reflexivity.
  - apply same_at_refl.
Qed.

Lemma numkinv_xd c k q wr closed : NumKInv c q wr closed (k_lo k (length closed)) (k_mid k (length closed)) -> wpend wr = [] ->
  XD c k (wfs q) closed (Some (cur_view q wr)).
Proof. intros I P. eapply kst_xd; [apply (numkinv_kst c q wr closed _ _ I P) | apply uncl_exact]. Qed.

Lemma kst_numkinv c q f0 f' wr closed lo mid cu :
  quiet q -> kst c f0 f' closed (Some cu) lo mid None -> lookup f0 (cname c) = Some (wino wr) -> wr_ok wr -> wcap wr = c_cap c ->
  wpend wr = [] ->
  NumKInv c (set_fs q f') wr closed lo mid /\ cur_view (set_fs q f') wr = cu.
Proof.
  intros Q [W Nd X Sc] Lc Hok Hcap P.
  destruct (same_at_content _ _ _ _ Sc Lc) as [Lc' Ic'].
  destruct (xdir_cur_lookup c f' closed cu lo mid None X) as (j & Lj & Pj & Cj).
  rewrite Lc' in Lj. injection Lj as <-.
  split.
  - constructor.
    + apply quiet_set_fs. exact Q.
    + exact W.
    + exact Lc'.
    + exact Pj.
    + eapply xdir_kdir; eassumption.
    + exact Hok.
    + exact Hcap.
  - unfold cur_view. rewrite wfs_set_fs, P, app_nil_r. exact Cj.
Qed.

Section Direct.
Variables (c : config) (crit : criterion) (k : cleanup) (n m : nat).
Hypothesis Hcfg : numkcfg c crit k.
Hypothesis Hk : klim k = Some (n, m).
Hypothesis Hcap : c_cap c = None.
Hypothesis Hsfx : sfx_ok (c_spec c).

Lemma direct_wr_k q wr cl lo mid : NumKInv c q wr cl lo mid -> wpend wr = [] /\ wcap wr = None.
Proof.
  intros I. pose proof (nk_wr _ _ _ _ _ _ I) as Hw. pose proof (nk_cap _ _ _ _ _ _ I) as Hc. rewrite Hcap in Hc.
  unfold wr_ok in Hw. rewrite Hc in Hw. split; assumption.
Qed.

Lemma kside_of L : kside c k L.
Proof. unfold kside. rewrite Hk. exact Hsfx. Qed.

(* ---- one rotation with a budget: rename, create, cleanup ---- *)
Lemma mount_next_kk q wr closed roll force j :
  NumKInv c q wr closed (k_lo k (length closed)) (k_mid k (length closed)) ->
  force || rotation_necessary q roll = true ->
  exists r w' st',
    mount_next c (kw q (S j)) (Active (Some (mk_rsk k (NSNumR (N.of_nat (length closed))) roll)) wr (cname c)) force = (r, w', st') /\
    ( (exists q' j' wr' roll', w' = kw q' (S j') /\ r = Ok tt
         /\ st' = Active (Some (mk_rsk k (NSNumR (N.of_nat (S (length closed)))) roll')) wr' (cname c)
         /\ NumKInv c q' wr' (closed ++ [cur_view q wr]) (k_lo k (S (length closed))) (k_mid k (S (length closed)))
         /\ cur_view q' wr' = [] /\ roll_size_ok roll' 0 /\ same_env q q'
         /\ (forall m0 cur, roll = RSize m0 cur -> exists cur', roll' = RSize m0 cur'))
      \/ (exists qd cl oc, w' = kw qd 0 /\ quiet qd /\ XD c k (wfs qd) cl oc
            /\ concat cl ++ ocb oc = concat closed ++ cur_view q wr /\ length cl <= S (length closed)) ).
Proof.
  intros I Hnec. pose proof Hcfg as (Hrot & Hts & Hlink & Has & Hbg).
  pose proof I as [Q W Hc Hcp KD Hwr Hcapw]. destruct (direct_wr_k q wr closed _ _ I) as [Hp Hc0].
  set (L := length closed) in *.
  destruct (kdir_rotate c (wfs q) closed _ _ (wino wr) (wpend wr) (wnow q) W KD Hc Hcp) as (Ht & f1 & Er & L1c & R).
  cbn zeta in R. destruct R as (W3 & L3c & Inew & KD3). rewrite Hp, append_ino_nil_id in W3, L3c, Inew, KD3. fold L in Ht, Er, KD3.
  rewrite app_nil_r in KD3.
  assert (Ecv : cur_view q wr = content (wfs q) (wino wr)) by (unfold cur_view; rewrite Hp, app_nil_r; reflexivity).
  pose proof (numkinv_kst c q wr closed _ _ I Hp) as K0.
  rewrite (mount_next_numr_kw c q (mk_rsk k (NSNumR (N.of_nat L)) roll) wr force _ (S j) f1 Hts Hlink Q Hp eq_refl Hnec Er L1c).
  destruct j as [|j'].
  - (* killed at the rename *)
    destruct (mount_tail_dead c (kw q 0) (mk_rsk k (NSNumR (N.of_nat L)) roll) wr (cname c) (NSNumR (N.of_nat L + 1)) (Ok cur_infix)
                (dead_kw q Q)) as [r [a [st' E]]].
    exists r, (kw (set_acts q a) 0), st'. split; [exact E|]. right.
    exists (set_acts q a), closed, (Some (cur_view q wr)). split; [reflexivity|]. split; [exact Q|].
    split; [apply (numkinv_xd c k q wr closed I Hp)|]. split; [reflexivity | apply Nat.le_succ_diag_r].
  - cbn [mk_rsk rs_bg rs_cleanup rs_roll cleanup_or_queue]. cbv zeta.
    destruct j' as [|j'']; cbn [eff_fs].
    + (* killed at the creation of the new current file *)
      destruct (cleanup_impl_dead c (kw (set_fs q f1) 0) k IFNum None (dead_kw _ (quiet_set_fs q f1 Q))) as [rc Ec]. rewrite Ec.
      eexists _, _, _. split; [reflexivity|]. right.
      exists (set_fs q f1), (closed ++ [cur_view q wr]), None. split; [reflexivity|]. split; [apply quiet_set_fs; exact Q|].
      split.
      { exists (k_lo k L), (k_mid k L), None. rewrite wfs_set_fs.
        split; [exact (wf_rename _ _ _ _ W Er)|]. split; [exact (nd_rename _ _ _ _ Er (kd_nodup _ _ _ _ _ KD))|].
        split.
        - eapply xdir_ext; [intros y; apply (file_of_rename (wfs q) (cname c) (rname c L) (wino wr)); [intros E; exact (rname_not_cname c L (eq_sym E)) | exact Hc | exact Er]|].
          rewrite Ecv. apply xdir_rename_cur. rewrite <- Ecv. exact (ks_x _ _ _ _ _ _ _ _ K0).
        - rewrite app_length, Nat.add_1_r. apply uncl_grow, uncl_exact. }
      split; [cbn [ocb]; rewrite concat_app; cbn [concat]; rewrite !app_nil_r; reflexivity|].
      rewrite app_length, Nat.add_1_r. apply Nat.le_refl.
    + (* rename and creation are done: the cleanup *)
      set (f2 := fst (create_file f1 (cname c) 0%N (wnow q))) in *. set (new := snd (create_file f1 (cname c) 0%N (wnow q))) in *.
      set (q2 := set_fs q f2). change (set_fs (set_fs q f1) f2) with q2.
      assert (Q2 : quiet q2) by exact Q.
      set (wr' := {| wino := new; wpend := []; wcap := c_cap c |}).
      rewrite Ecv. set (closed' := closed ++ [content (wfs q) (wino wr)]) in *.
      assert (EL : length closed' = S L) by (unfold closed'; rewrite app_length; apply Nat.add_1_r).
      assert (K2 : kst c (wfs q2) (wfs q2) closed' (Some []) (k_lo k (length closed' - 1)) (k_mid k (length closed' - 1)) None).
      { rewrite EL. cbn [Nat.sub]. rewrite Nat.sub_0_r. change (wfs q2) with f2. constructor.
        - exact W3.
        - exact (kd_nodup _ _ _ _ _ KD3).
        - apply kdir_xdir; [exact KD3|]. exists new. split; [exact L3c|]. rewrite Inew. split; [split; reflexivity|].
          unfold content. rewrite Inew. reflexivity.
        - apply same_at_refl. }
      destruct (cleanup_budget c crit k n m q2 closed' (Some []) j'' Hcfg Hk Hsfx Q2 K2)
        as (rc & w4 & Ec & [(f' & j2 & -> & -> & K4) | (f' & lo & mid & red & -> & K4 & U4)]); rewrite Ec.
      * eexists _, _, _. split; [reflexivity|]. left.
        exists (set_fs q2 f'), j2, wr', (reset_size_and_date q2 roll (cname c)).
        split; [reflexivity|]. split; [reflexivity|].
        split. { rewrite Nat2N.inj_succ, <- N.add_1_r. reflexivity. }
        destruct (kst_numkinv c q2 (wfs q2) f' wr' closed' _ _ [] Q2 K4 L3c (wr_ok_nil _ _) eq_refl eq_refl) as [I4 V4].
        rewrite EL in I4.
        split; [exact I4|]. split; [exact V4|].
        split. { destruct roll; cbn; auto. }
        split. { apply (same_env_set_fs q). exact Q. }
        intros m0 cur ->. cbn. eauto.
      * eexists _, _, _. split; [reflexivity|]. right.
        exists (set_fs q2 f'), closed', (Some []). split; [reflexivity|]. split; [exact Q|].
        split; [exact (kst_xd c k _ _ _ _ _ _ _ K4 U4)|].
        split. { unfold closed'. cbn [ocb]. rewrite concat_app. cbn [concat]. rewrite !app_nil_r. reflexivity. }
        rewrite EL. apply Nat.le_refl.
Qed.

(* ---- one write(2) of the unbuffered writer with a budget ---- *)
Lemma w_write_kk q wr cl lo mid b j :
  NumKInv c q wr cl lo mid ->
  exists w', w_write (kw q (S j)) wr b = (true, w', wr) /\
   ( (exists q' j', w' = kw q' (S j') /\ NumKInv c q' wr cl lo mid /\ cur_view q' wr = cur_view q wr ++ b /\ same_env q q')
     \/ w' = kw q 0 ).
Proof.
  intros I. destruct (direct_wr_k q wr cl lo mid I) as [Hp Hc0]. pose proof (nk_quiet _ _ _ _ _ _ I) as Q.
  apply (w_write_direct_kw (fun q' => NumKInv c q' wr cl lo mid) q wr b j Q Hp Hc0 I).
  intros x q' F S. exact (numkinv_append c q q' wr wr cl lo mid x I F S eq_refl eq_refl (nk_wr _ _ _ _ _ _ I)).
Qed.

(* ---- a write on an active writer with a budget: every kill point ---- *)
Lemma write_active_kk q wr cl roll b j :
  NumKInv c q wr cl (k_lo k (length cl)) (k_mid k (length cl)) -> roll_size_ok roll (length (cur_view q wr)) ->
  exists r w' s' rot', write_buffer (st_ofk c k (length cl) roll wr) (kw q (S j)) b = (r, w', s', rot') /\
  ( (exists q' j' wr' roll' cl', w' = kw q' (S j') /\ r = Ok tt /\ s' = st_ofk c k (length cl') roll' wr'
       /\ rot' = rotation_necessary q roll
       /\ NumKInv c q' wr' cl' (k_lo k (length cl')) (k_mid k (length cl')) /\ roll_size_ok roll' (length (cur_view q' wr')) /\ same_env q q'
       /\ (cl', cur_view q' wr') = (if rotation_necessary q roll then (cl ++ [cur_view q wr], b) else (cl, cur_view q wr ++ b))
       /\ (forall m0 cur, roll = RSize m0 cur -> exists cur', roll' = RSize m0 cur'))
    \/ (exists qd cld oc, w' = kw qd 0 /\ quiet qd /\ XD c k (wfs qd) cld oc
          /\ concat cld ++ ocb oc = concat cl ++ cur_view q wr /\ length cld <= S (length cl)) ).
Proof.
  intros I Hsz. destruct (direct_wr_k q wr cl _ _ I) as [Hp Hc0]. pose proof (nk_quiet _ _ _ _ _ _ I) as Q.
  rewrite write_buffer_eq. unfold wb_active. cbn [st_ofk f_cfg f_inner mk_rsk rs_roll]. rewrite rot_nec_kw.
  destruct (rotation_necessary q roll) eqn:Er.
  - (* the write rotates first *)
    destruct (mount_next_kk q wr cl roll false j I) as (r1 & w1 & st1 & E1 & M); [cbn [orb]; exact Er|].
    rewrite E1.
    destruct M as [(q1 & j1 & wr1 & roll1 & -> & -> & -> & I1 & V1 & Z1 & S1 & R1) | (qd & cld & oc & -> & Qd & Xd & Fl & Len)].
    + unfold wb_tail.
      assert (EL : length (cl ++ [cur_view q wr]) = S (length cl)) by (rewrite app_length; cbn [length]; lia).
      rewrite <- EL in I1.
      destruct (w_write_kk q1 wr1 (cl ++ [cur_view q wr]) _ _ b j1 I1) as [w2 [Ew Out]]. rewrite Ew.
      eexists _, w2, _, true. split; [reflexivity|].
      destruct Out as [[q2 [j2 [-> [I2 [V2 S2]]]]] | ->].
      * left. exists q2, j2, wr1, (increase_size roll1 (N.of_nat (length b))), (cl ++ [cur_view q wr]).
        split; [reflexivity|]. split; [reflexivity|]. split; [unfold st_ofk; rewrite EL; reflexivity|]. split; [reflexivity|].
        split; [exact I2|]. rewrite V1 in V2. cbn [app] in V2.
        split. { rewrite V2. apply (roll_size_increase roll1 0 (length b)). exact Z1. }
        split; [eapply same_env_trans; eassumption|].
        split; [rewrite V2; reflexivity|].
        intros m0 cur Hr. destruct (R1 m0 cur Hr) as [cur' ->]. cbn. eauto.
      * right. destruct (direct_wr_k q1 wr1 _ _ _ I1) as [Hp1 _].
        exists q1, (cl ++ [cur_view q wr]), (Some (cur_view q1 wr1)).
        split; [reflexivity|]. split; [apply I1|]. split; [exact (numkinv_xd c k q1 wr1 _ I1 Hp1)|].
        split.
        -- cbn [ocb]. rewrite V1, concat_app. cbn [concat]. rewrite !app_nil_r. reflexivity.
        -- rewrite EL. lia.
    + destruct (wb_tail_dead (st_ofk c k (length cl) roll wr) b r1 (kw qd 0) st1 true (dead_kw qd Qd)) as [r [s' ET]].
      exists r, (kw qd 0), s', true. split; [exact ET|]. right. exists qd, cld, oc. auto.
  - (* no rotation *)
    rewrite mount_next_idle by (rewrite rot_nec_kw; exact Er). unfold wb_tail.
    destruct (w_write_kk q wr cl _ _ b j I) as [w2 [Ew Out]]. rewrite Ew.
    eexists _, w2, _, false. split; [reflexivity|].
    destruct Out as [[q2 [j2 [-> [I2 [V2 S2]]]]] | ->].
    + left. exists q2, j2, wr, (increase_size roll (N.of_nat (length b))), cl.
      split; [reflexivity|]. split; [reflexivity|]. split; [reflexivity|]. split; [reflexivity|].
      split; [exact I2|].
      split. { rewrite V2, app_length. apply roll_size_increase. exact Hsz. }
      split; [exact S2|]. split; [rewrite V2; reflexivity|].
      intros m0 cur ->. cbn. eauto.
    + right. exists q, cl, (Some (cur_view q wr)). split; [reflexivity|]. split; [exact Q|].
      split; [exact (numkinv_xd c k q wr cl I Hp)|]. split; [reflexivity | lia].
Qed.

(* ---- the first write: initialisation in the empty directory with a budget ---- *)
Lemma initialize_empty_kk q j :
  quiet q -> names (wfs q) = [] -> inodes (wfs q) = [] ->
  match j with
  | 0 => exists r a, initialize c (kw q 1) = (r, set_acts (kw q 0) a)
  | S j' => exists q' wr roll,
      initialize c (kw q (S (S j'))) = (Ok (Active (Some (mk_rsk k (NSNumR 0) roll)) wr (cname c)), kw q' (S j'))
      /\ NumKInv c q' wr [] 0 0 /\ cur_view q' wr = [] /\ roll_size_ok roll 0 /\ same_env q q'
      /\ (forall m0, crit = CSize m0 -> roll = RSize m0 0)
  end.
Proof.
  intros Q Hn Hi. pose proof Hcfg as (Hrot & Hts & Hlink & Has & Hbg).
  assert (Lc : lookup (wfs q) (name_of c q (Some cur_infix)) = None) by (apply lookup_empty; exact Hn).
  pose proof (fun b => open_log_file_fresh_kw c q b (Some cur_infix) Q Hlink Lc) as Eo.
  rewrite (name_of_nm c q cur_infix Hts) in Eo. fold (cname c) in Eo.
  destruct j as [|j'].
  - exact (initialize_dies c _ _ _ _ _ _ _ _ _ Hrot (init_naming_empty_kw c q 1 Hts Q Hn) (Eo 1) (dead_kw q Q)).
  - destruct (numinv_first c q Q Hn Hi) as [I2 [V2 Fo]]. specialize (Eo (S (S j'))). cbn [eff_fs] in Eo.
    set (q2 := set_fs q (fst (create_file (wfs q) (cname c) 0%N (wnow q)))) in *.
    set (wr := {| wino := length (inodes (wfs q)); wpend := []; wcap := c_cap c |}) in *.
    assert (K2 : NumKInv c q2 wr [] 0 0).
    { destruct I2 as [Q2 W2 Lc2 Pc2 Cl2 On2 Wr2 Cap2]. constructor; try assumption. constructor.
      - split; apply Nat.le_refl.
      - unfold nodup_names, dir_names, q2. cbn [set_fs wfs create_file fst names]. rewrite Hn. cbn [map fst]. constructor; [intros [] | constructor].
      - intros i [_ Hi']. inversion Hi'.
      - intros i [_ Hi']. inversion Hi'.
      - intros x i Hx. destruct (On2 x i Hx) as [->|[i0 [Hi0 _]]]; [left; reflexivity | inversion Hi0]. }
    assert (Ecl : match k with KNever => (Ok tt, kw q2 (S j')) | _ => cleanup_impl c (kw q2 (S j')) k (ns_filter (NSNumR 0)) (if naming_writes_direct NNumbers then Some (cname c) else None) end
                  = (Ok tt, kw q2 (S j'))).
    { destruct k; [reflexivity|..];
        exact (cleanup_budget_noop c crit _ n m q2 [] 0 0 (S j') Hcfg Hk Hsfx Q (nk_dir _ _ _ _ _ _ K2) (Nat.le_0_l n)). }
    assert (Ebg : match k with KNever => false | _ => c_bg c end = false) by (destruct k; auto).
    pose proof (initialize_steps c _ _ _ _ _ _ _ _ _ _ _ _ _ Hrot (init_naming_empty_kw c q _ Hts Q Hn) Eo
                  (roll_new_kw q2 (S j') crit (c_append c) _ _ Q Fo) Ecl) as Ei. rewrite Ebg in Ei.
    eexists q2, wr, _. split; [exact Ei|]. split; [exact K2|]. split; [exact V2|].
    cbn [fresh_file fdata fborn length]. split; [destruct (c_append c); apply (roll_of_size_ok crit 0)|].
    split; [apply same_env_set_fs; exact Q|]. intros m0 ->. destruct (c_append c); reflexivity.
Qed.

(* ------------------------------------------------------------------ the relation for a process with a budget *)
Definition KRelK (x : sys) (a : aview) : Prop :=
  exists q j, s_w x = kw q (S j) /\ RelK c crit k (with_w x q) a.

Lemma empty_xd f : names f = [] -> XD c k f [] None.
Proof.
  intros Hn. destruct (empty_view c f Hn) as [W _]. exists 0, 0, None. split; [exact W|].
  split; [unfold nodup_names, dir_names; rewrite Hn; constructor|].
  split; [|split; lia].
  assert (E : forall y, file_of f y = None) by (intros y; apply file_of_none; apply lookup_empty; exact Hn).
  constructor.
  - cbn [length]. lia.
  - cbn [length]. intros i Hi. lia.
  - intros i Hi. lia.
  - apply E.
  - exact I.
  - intros x fl Hx. rewrite E in Hx. discriminate.
Qed.

(* ---- a write, from either kind of state ---- *)
Lemma write_rel_kk x a b q j :
  s_w x = kw q (S j) -> RelK c crit k (with_w x q) a ->
  exists s r w' s' rot, s_flw x = Some s /\ f_poisoned s = false /\
    write_buffer s (s_w x) b = (r, w', s', rot) /\
    ( (r = Ok tt /\ KRelK {| s_flw := Some s'; s_w := w'; s_tl := []; s_dead := s_dead x |} (a_step a (OWrite b) rot))
      \/ (exists cl oc, DeadK c k w' cl oc /\ concat cl ++ ocb oc = flat a /\ length cl <= S (apot a)) ).
Proof.
  intros Ew [Ht [Ha R]]. cbn [with_w s_tl s_w s_flw] in Ht, Ha, R. rewrite Ew. destruct a as [[cl cu]|].
  - destruct R as [wr [roll [Es [I [V [Z RS]]]]]]. rewrite <- V in Z.
    destruct (write_active_kk q wr cl roll b j I Z) as [r [w' [s' [rot' [E Out]]]]].
    exists (st_ofk c k (length cl) roll wr), r, w', s', rot'. split; [exact Es|]. split; [reflexivity|]. split; [exact E|].
    destruct Out as [[q' [j' [wr' [roll' [cl' [-> [-> [-> [-> [I' [Z' [S' [V' R']]]]]]]]]]]]] | [qd [cld [oc [-> [Qd [Xd [Fl Len]]]]]]]].
    + left. split; [reflexivity|]. exists q', j'. split; [reflexivity|].
      split; [reflexivity|]. split; [cbn [with_w s_w]; exact (same_env_acts _ _ S' Ha)|].
      cbn [a_step]. rewrite V in V'.
      destruct (rotation_necessary q roll); injection V' as <- V''; (exists wr', roll'; cbn [with_w s_flw s_w];
        split; [reflexivity|]; split; [exact I'|]; split; [exact V''|]; split; [rewrite <- V''; exact Z'|];
        intros m0 Hm; destruct (RS m0 Hm) as [z ->]; destruct (R' m0 z eq_refl) as [z' ->]; eauto).
    + right. exists cld, oc. split; [split; [apply dead_kw; exact Qd | exact Xd]|].
      split; [rewrite Fl, V; reflexivity | exact Len].
  - destruct R as [Es [Q [Hn Hi]]].
    pose proof (initialize_empty_kk q j Q Hn Hi) as IE. destruct j as [|j'].
    + destruct IE as [r0 [a0 Ei]].
      destruct (wb_initial_dead (new_flw c) (kw q 1) b r0 _ eq_refl Ei (dead_kw q Q)) as [r [w' [s' [rot [E F]]]]].
      exists (new_flw c), r, w', s', rot. split; [exact Es|]. split; [reflexivity|]. split; [exact E|].
      right. exists [], None. destruct F as [D F]. cbn [kw set_kill set_acts wfs] in F.
      split; [split; [exact D | apply empty_xd; rewrite F; exact Hn]|]. split; [reflexivity | cbn; lia].
    + destruct IE as [q1 [wr [roll [Ei [I [V [Z [S1 RS]]]]]]]].
      assert (Z0 : roll_size_ok roll (length (cur_view q1 wr))) by (rewrite V; exact Z).
      assert (I0 : NumKInv c q1 wr [] (k_lo k (length (@nil bytes))) (k_mid k (length (@nil bytes))))
        by (cbn [length]; rewrite k_lo_0, k_mid_0; exact I).
      destruct (write_active_kk q1 wr [] roll b j' I0 Z0) as [r [w' [s' [rot' [E Out]]]]].
      exists (new_flw c), r, w', s', rot'. split; [exact Es|]. split; [reflexivity|].
      split. { rewrite (write_buffer_init c (kw q (S (S j'))) b _ _ _ (kw q1 (S j')) Ei). exact E. }
      destruct Out as [[q' [j2 [wr' [roll' [cl' [-> [-> [-> [-> [I' [Z' [S' [V' R']]]]]]]]]]]]] | [qd [cld [oc [-> [Qd [Xd [Fl Len]]]]]]]].
      * left. split; [reflexivity|]. exists q', j2. split; [reflexivity|].
        split; [reflexivity|]. split; [cbn [with_w s_w]; exact (same_env_acts _ _ (same_env_trans _ _ _ S1 S') Ha)|].
        cbn [a_step]. rewrite V in V'. cbn [app] in V'.
        destruct (rotation_necessary q1 roll); injection V' as <- V''; (exists wr', roll'; cbn [with_w s_flw s_w];
          split; [reflexivity|]; split; [exact I'|]; split; [exact V''|]; split; [rewrite <- V''; exact Z'|]).
        -- intros m0 Hm. rewrite (RS m0 Hm) in R'. destruct (R' m0 0%N eq_refl) as [z' ->]; eauto.
        -- intros m0 Hm. rewrite (RS m0 Hm) in R'. destruct (R' m0 0%N eq_refl) as [z' ->]; eauto.
      * right. exists cld, oc. split; [split; [apply dead_kw; exact Qd | exact Xd]|].
        split; [rewrite Fl, V; reflexivity | exact Len].
Qed.

Lemma krelk_flw x a : KRelK x a -> exists s, s_flw x = Some s /\ f_cfg s = c.
Proof.
  intros [q [j [_ [_ [_ R]]]]]. cbn [with_w s_flw] in R.
  destruct a as [[cl cu]|]; [destruct R as [wr [roll [Es _]]] | destruct R as [Es _]]; rewrite Es; eexists; split; reflexivity.
Qed.

Lemma step_sync_kk x a o : KRelK x a -> step x o = sync_step x o.
Proof.
  intros K. destruct (krelk_flw x a K) as [s [Es Ec]]. destruct Hcfg as (_ & Hts & _ & Ha & _).
  apply (step_sync_cfg x o s Es); rewrite Ec; assumption.
Qed.

(* ---- one basic operation of a process with a budget: it either completes (and is acknowledged), or the process dies
        in it, and then the directory holds a tail of what was acknowledged before ---- *)
Lemma kstep_k x a o : KRelK x a -> basic_op o ->
  let '(x', ob) := step x o in
  (alive (s_w x') = true /\ KRelK x' (a_step a o (rot_of ob)))
  \/ (alive (s_w x') = false /\ exists cl oc, DeadK c k (s_w x') cl oc /\ concat cl ++ ocb oc = flat a /\ length cl <= S (apot a)).
Proof.
  intros K Hb. rewrite (step_sync_kk x a o K). destruct K as [q [j [Ew R]]].
  destruct o; try contradiction; cbn [sync_step].
  - (* OWrite *)
    destruct (write_rel_kk x a b q j Ew R) as [s [r [w' [s' [rot [Es [Hp [E Out]]]]]]]].
    rewrite Es, Hp. pose proof (proj1 R) as Ht. cbn [with_w s_tl] in Ht. rewrite Ht. cbn [app]. rewrite E. cbn [rot_of].
    destruct Out as [[-> K'] | [cl [oc [D [Fl Len]]]]].
    + left. split; [|exact K']. destruct K' as [q' [j' [E' _]]]. cbn [s_w] in E' |- *. rewrite E'. reflexivity.
    + right. cbn [s_w].
      rewrite report_write_dead by apply D. split; [apply dead_not_alive; apply D|]. exists cl, oc. auto.
  - (* OPlain *)
    destruct (write_rel_kk x a b q j Ew R) as [s [r [w' [s' [rot [Es [Hp [E Out]]]]]]]].
    rewrite Es, Hp, E. cbn [rot_of]. pose proof (proj1 R) as Ht. cbn [with_w s_tl] in Ht. rewrite Ht.
    destruct Out as [[-> K'] | [cl [oc [D [Fl Len]]]]].
    + left. split; [|exact K']. destruct K' as [q' [j' [E' _]]]. cbn [s_w] in E' |- *. rewrite E'. reflexivity.
    + right. cbn [s_w]. split; [apply dead_not_alive; apply D|]. exists cl, oc. auto.
  - (* OFlush *)
    destruct R as [Ht [Ha R]]. cbn [with_w s_tl s_w s_flw] in Ht, Ha, R. destruct a as [[cl cu]|].
    + destruct R as [wr [roll [Es [I [V [Z RS]]]]]]. rewrite Es. cbn [st_ofk f_poisoned].
      destruct (direct_wr_k q wr cl _ _ I) as [Pw _].
      unfold flush_state, st_ofk. cbn [f_inner]. rewrite w_flush_nop by exact Pw. rewrite (writer_eta wr Pw).
      cbn [rot_of a_step s_w]. left. split; [rewrite Ew; reflexivity|].
      exists q, j. split; [exact Ew|]. split; [exact Ht|]. split; [exact Ha|].
      exists wr, roll. cbn [with_w s_flw s_w]. split; [reflexivity|]. split; [exact I|]. split; [exact V|]. split; assumption.
    + destruct R as [Es R]. rewrite Es. cbn [new_flw f_poisoned flush_state f_inner rot_of a_step s_w].
      left. split; [rewrite Ew; reflexivity|]. exists q, j. split; [exact Ew|]. split; [exact Ht|]. split; [exact Ha|].
      split; [reflexivity | exact R].
  - (* OTrigger *)
    destruct R as [Ht [Ha R]]. cbn [with_w s_tl s_w s_flw] in Ht, Ha, R. destruct a as [[cl cu]|].
    + destruct R as [wr [roll [Es [I [V [Z RS]]]]]]. rewrite Es. cbn [st_ofk f_poisoned f_cfg f_inner]. rewrite Ew.
      destruct (mount_next_kk q wr cl roll true j I eq_refl) as (r1 & w1 & st1 & E1 & M). rewrite E1.
      destruct M as [(q1 & j1 & wr1 & roll1 & -> & -> & -> & I1 & V1 & Z1 & S1 & R1) | (qd & cld & oc & -> & Qd & Xd & Fl & Len)].
      * left. cbn [rot_of a_step code_of with_inner f_cfg f_poisoned s_w]. split; [reflexivity|].
        exists q1, j1. split; [reflexivity|]. split; [exact Ht|]. split; [cbn [with_w s_w]; exact (same_env_acts _ _ S1 Ha)|].
        rewrite V in *. exists wr1, roll1. cbn [with_w s_flw s_w].
        assert (EL : length (cl ++ [cu]) = S (length cl)) by (rewrite app_length; cbn [length]; lia).
        split; [unfold st_ofk; rewrite EL; reflexivity|]. split; [rewrite EL; exact I1|]. split; [exact V1|]. split; [exact Z1|].
        intros m0 Hm. destruct (RS m0 Hm) as [z ->]. destruct (R1 m0 z eq_refl) as [z' ->]. eauto.
      * right. cbn [s_w fst]. destruct r1; cbn [s_w]; (split; [reflexivity|]); exists cld, oc;
          (split; [split; [apply dead_kw; exact Qd | exact Xd]|]; split; [rewrite Fl, V; reflexivity | exact Len]).
    + destruct R as [Es R]. rewrite Es. cbn [new_flw f_poisoned f_cfg f_inner mount_next with_inner rot_of a_step code_of s_w].
      left. split; [rewrite Ew; reflexivity|]. exists q, j. split; [exact Ew|]. split; [exact Ht|]. split; [exact Ha|].
      split; [reflexivity | exact R].
  - (* OTick *)
    cbn [rot_of a_step s_w]. left. rewrite Ew. split; [reflexivity|].
    exists (set_now q (wnow q + dt)%Z), j. split; [reflexivity|].
    destruct R as [Ht [Ha R]]. cbn [with_w s_tl s_w s_flw] in Ht, Ha, R.
    split; [exact Ht|]. split; [exact Ha|]. destruct a as [[cl cu]|].
    + destruct R as [wr [roll [Es [I [V [Z RS]]]]]]. exists wr, roll. cbn [with_w s_flw s_w].
      split; [exact Es|]. split; [apply (numkinv_env c q); [exact I | reflexivity | apply quiet_set_now; apply I]|].
      split; [exact V|]. split; assumption.
    + cbn [with_w s_flw s_w]. destruct R as [Es [Q [Hn Hi]]]. split; [exact Es|]. split; [apply quiet_set_now; exact Q|]. split; assumption.
  - (* OSnap *)
    cbn [rot_of a_step]. left. split; [rewrite Ew; reflexivity|]. exists q, j. split; [exact Ew | exact R].
Qed.

(* the same with the dead directory as a pair, the form the run lemmas take *)
Lemma kstep_k_run x a o : KRelK x a -> basic_op o ->
  let '(x', ob) := step x o in
  (alive (s_w x') = true /\ KRelK x' (a_step a o (rot_of ob)))
  \/ (alive (s_w x') = false /\ exists d : list bytes * option bytes,
        (dead (s_w x') /\ XD c k (wfs (s_w x')) (fst d) (snd d)) /\ concat (fst d) ++ ocb (snd d) = flat a /\ length (fst d) <= S (apot a)).
Proof.
  intros K0 Hb0. pose proof (kstep_k x a o K0 Hb0) as S. destruct (step x o) as [x' ob].
  destruct S as [L | [Al [cl [oc R]]]]; [left; exact L | right; split; [exact Al|]; exists (cl, oc); exact R].
Qed.

(* the directory when no writer is there *)
Definition IdleK (x : sys) (cl : list bytes) (oc : option bytes) : Prop :=
  s_tl x = [] /\ wacts (s_w x) = 0 /\ s_flw x = None /\ quiet (s_w x) /\ XD c k (wfs (s_w x)) cl oc.

Lemma crash_alive_k x a : KRelK x a ->
  exists d, IdleK (fst (step x OCrash)) (fst d) (snd d) /\ concat (fst d) ++ ocb (snd d) = flat a /\ length (fst d) = apot a.
Proof.
  intros [q [j [Ew [Ht [Ha R]]]]]. rewrite step_crash. cbn [sync_step fst]. cbn [with_w s_tl s_w s_flw] in Ht, Ha, R.
  unfold IdleK. cbn [s_tl s_w s_flw]. rewrite Ew. cbn [kw set_kill set_acts wfs wacts].
  destruct a as [[cl cu]|].
  - destruct R as [wr [roll [Es [I [V [Z RS]]]]]]. destruct (direct_wr_k q wr cl _ _ I) as [Pw _].
    pose proof (numkinv_xd c k q wr cl I Pw) as X. rewrite V in X. pose proof (nk_quiet _ _ _ _ _ _ I) as [Qf _].
    exists (cl, Some cu). split; [|split; reflexivity].
    split; [reflexivity|]. split; [reflexivity|]. split; [reflexivity|]. split; [split; [exact Qf | reflexivity] | exact X].
  - destruct R as [Es [[Qf _] [Hn Hi]]].
    exists ([], None). split; [|split; reflexivity].
    split; [reflexivity|]. split; [reflexivity|]. split; [reflexivity|]. split; [split; [exact Qf | reflexivity] | apply empty_xd; exact Hn].
Qed.

Lemma crash_dead_k x cl oc : DeadK c k (s_w x) cl oc -> IdleK (fst (step x OCrash)) cl oc.
Proof.
  intros [[_ Df] X]. rewrite step_crash. cbn [sync_step fst]. unfold IdleK. cbn [s_tl s_w s_flw set_kill set_acts wfs wacts].
  split; [reflexivity|]. split; [reflexivity|]. split; [reflexivity|]. split; [split; [exact Df | reflexivity] | exact X].
Qed.

Lemma arm_krelk x a j : RelK c crit k x a -> KRelK (fst (step x (OSetKill j))) a.
Proof.
  intros R. rewrite (step_sync_rel_k c crit k x a _ Hcfg R). cbn [sync_step fst].
  exists (s_w x), j. split; [reflexivity|]. unfold with_w. cbn [s_flw s_tl s_dead]. destruct x; exact R.
Qed.

(* ---- the whole history of the killed process ---- *)
Lemma kill_history_k t0 off ops1 kp ops2 : Forall basic_op ops1 -> Forall basic_op ops2 ->
  exists cl oc, IdleK (fst (run (sys0 t0 off) (OStart c :: ops1 ++ [OSetKill kp] ++ ops2 ++ [OCrash]))) cl oc
    /\ concat cl ++ ocb oc = written ops1 ++ acked (fst (run (sys0 t0 off) (OStart c :: ops1 ++ [OSetKill kp]))) ops2
    /\ length cl <= S (length ops1 + length ops2).
Proof.
  intros Hb1 Hb2. rewrite !fst_run_cons.
  destruct (armed_of_kstep KRelK (RelK c crit k) _ ops1 kp (start_rel_k c crit k t0 off)
              (fun ops x a R Hb => run_rel_k c crit k Hcfg ops x a R Hb (kside_of _)) (fun x a => arm_krelk x a kp) Hb1) as [a1 [K2 [F1 P1]]].
  destruct (history_of_kstep _ KRelK (fun f d => XD c k f (fst d) (snd d)) (fun d => concat (fst d) ++ ocb (snd d)) (fun d => length (fst d))
              kstep_k_run (fun x d => IdleK x (fst d) (snd d)) _ ops1 kp ops2 a1
              crash_alive_k (fun x d => crash_dead_k x (fst d) (snd d)) K2 F1 P1 Hb2) as [[cl oc] H].
  exists cl, oc. exact H.
Qed.

End Direct.

(* After any history  OStart c :: ops1 ++ [OSetKill kp] ++ ops2 ++ [OCrash]  from the empty directory (Numbers naming with
   KeepLogFiles n / KeepCompressedFiles m / both, cleanup in the logging thread, direct mode; ops1, ops2 any basic
   operations; ANY kill point kp, those inside the cleanup included), there are `closed` (the contents of all files that
   were ever closed, in order) and `ocur` (rCURRENT, if it exists) with  concat closed ++ ocur = acknowledged records, and
   the directory, read as the reader does (kill_view), holds the closed files from number lo on and rCURRENT:
   the stream the reader obtains, kv_stream closed ocur lo, is a TAIL of the acknowledged records, and
   lo <= length closed - (n + m): every record that a completed cleanup would have kept is there, none twice.
   An unfinished archive (gzip state 2) occurs only next to its intact original and is ignored by the reader; a complete
   archive next to its original holds the same content (the reader takes one of the two).
   Side condition as for C07: the suffix does not end with .gz (no bound on the number of operations). *)
Theorem numbers_cleanup_kill_keeps_acked c crit k n m t0 off ops1 kp ops2 :
  numkcfg c crit k -> klim k = Some (n, m) -> c_cap c = None -> sfx_ok (c_spec c) ->
  Forall basic_op ops1 -> Forall basic_op ops2 ->
  let x1 := fst (run (sys0 t0 off) (OStart c :: ops1 ++ [OSetKill kp])) in
  let xe := fst (run (sys0 t0 off) (OStart c :: ops1 ++ [OSetKill kp] ++ ops2 ++ [OCrash])) in
  exists closed ocur lo,
    kill_view c (wfs (s_w xe)) closed ocur lo
    /\ concat closed ++ ocb ocur = written ops1 ++ acked x1 ops2
    /\ lo <= length closed - (n + m)
    /\ written ops1 ++ acked x1 ops2 = concat (firstn lo closed) ++ kv_stream closed ocur lo.
Proof.
  intros Hcfg Hk Hcap Hsfx Hb1 Hb2 x1 xe.
  destruct (kill_history_k c crit k n m Hcfg Hk Hcap Hsfx t0 off ops1 kp ops2 Hb1 Hb2) as (cl & oc & Id & F & _).
  destruct Id as (_ & _ & _ & _ & (lo & mid & red & W & Nd & X & U)). fold xe in X. fold x1 in F.
  exists cl, oc, lo. split; [exact (xdir_kill_view c _ cl oc lo mid red X)|]. split; [exact F|].
  split. { destruct U as [U _]. unfold k_lo in U. rewrite Hk in U. exact U. }
  rewrite <- F. apply kv_stream_tail.
Qed.
Print Assumptions numbers_cleanup_kill_keeps_acked.
