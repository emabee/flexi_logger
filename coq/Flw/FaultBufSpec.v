(* C19 for the BUFFERED write modes (c_cap c = Some n), without rotation: the executable SPECIFICATION of what a
   FileLogWriter makes of a history of log calls, flushes, shutdowns and the final drop when the file-system calls
   fail as an arbitrary fault oracle says; and what the specification implies (loss bounded and announced, recovery).
   The refinement proof (the model `run` does exactly this) is in FaultBuffered.v.

   What the model does, read off Model.w_write / w_flush / write_buffer / flush_state / shutdown_state / drop_state and
   Run.sync_step (and confirmed by computation, see the examples in FaultBuffered.v):

   (o)   the OPEN of the log file (first record, and again for every record as long as it fails): write_buffer returns
         Err before anything is buffered, the incoming record is LOST, the handle reports EWrite, the log call returns
         normally; the state stays `Initial`.
   (i)   a record that FITS into the buffer makes no file-system call at all: nothing can fail.
   (ii)  a record that does not fit makes the BufWriter flush first (one write(2) call with the whole buffer content).
         If that call FAILS, w_write returns the error at once: the buffer KEEPS its whole content (nothing is dropped,
         nothing is partly written - the model's write(2) is all-or-nothing), the INCOMING record is NOT taken into the
         buffer: it is LOST.  write_buffer returns Err, the handle reports EWrite; the log call returns normally
         (ObsRes 0).  The records in the buffer are NOT lost: the flush is tried again at the next occasion (the next
         record that does not fit, OFlush, shutdown, drop) and they reach the file then, in order, before any later
         record.  As long as the flush keeps failing, every record that does not fit is lost (each one reported),
         while small records that still fit are accepted.
   (iii) a record of at least the capacity is written directly (after the flush): if that call fails, the record is
         lost and reported (EWrite); what was flushed before it is in the file.
   (iv)  OFlush: one write(2) call with the buffer content (none for an empty buffer).  A failure is NOT put on the
         error channel: it is the result of the call (ObsRes 1); the buffer keeps its content, nothing is lost.
   (v)   OShutdown: like OFlush, but the result is 0 and a failure is reported as EFlush.
   (vi)  OStop (drop of the writer): both Drop impls call shutdown (each: flush, a failure is REPORTED as EFlush -
         this is fix 4e84f2d), then the BufWriter is dropped, which flushes once more with the error swallowed.
         So there are up to THREE attempts; the buffer content is lost only if all three fail - then EFlush has been
         reported twice, for a loss of ALL records in the buffer.  One or two failing attempts are reported although
         nothing is lost.
   No log call panics or returns an error; only OFlush returns 1 on failure. *)
Require Import FL.Base.Bytes FL.Base.BytesFacts FL.Fs.Fs FL.Flw.Model FL.Flw.Run FL.Flw.FaultFacts FL.Flw.FaultRotSpec.
From Coq Require Import ZifyN ZifyNat ZifyBool.
Open Scope nat_scope.

(* the abstract state, in terms of RECORDS: those that have reached the file, those that sit in the buffer *)
Inductive bst :=
| BClosed                                (* writer not initialised, no file *)
| BOpen (F B : list bytes)               (* the file holds concat F, the buffer holds concat B *)
| BStopped (F : list bytes).             (* the writer has been dropped *)

Definition st_file (st : bst) : list bytes := match st with BClosed => [] | BOpen F _ => F | BStopped F => F end.
Definition st_buf (st : bst) : list bytes := match st with BOpen _ B => B | _ => [] end.
Definition st_all (st : bst) : list bytes := st_file st ++ st_buf st.
Definition live (st : bst) : Prop := match st with BStopped _ => False | _ => True end.

(* what one operation yields: new state, reports, rest of the oracle, result code of the call, records lost by it *)
Record bout := mkout { o_st : bst; o_errs : list ecode; o_fl : list bool; o_code : N; o_lost : list bytes }.

(* write_all of a BufWriter of capacity n *)
Definition sb_write (n : nat) (F B : list bytes) (b : bytes) (fl : list bool) : bout :=
  let spare := n - length (concat B) in
  if length b <? spare then mkout (BOpen F (B ++ [b])) [] fl 0 []
  else
    let '(ff, fl1) := if spare <? length b then wr_pop (concat B) fl else (false, fl) in      (* flush first *)
    if ff then mkout (BOpen F B) [EWrite] fl1 0 [b]
    else
      let F1 := if spare <? length b then F ++ B else F in
      let B1 := if spare <? length b then [] else B in
      if n <=? length b then
        let '(fw, fl2) := wr_pop b fl1 in                                                      (* written directly *)
        if fw then mkout (BOpen F1 B1) [EWrite] fl2 0 [b]
        else mkout (BOpen (F1 ++ B1 ++ [b]) []) [] fl2 0 []
      else mkout (BOpen F1 (B1 ++ [b])) [] fl1 0 [].

(* flush / shutdown: `rep` is what a failure puts on the error channel, `code` the result of a failing call *)
Definition sb_flush (F B : list bytes) (fl : list bool) (rep : list ecode) (code : N) : bout :=
  let '(f, fl1) := wr_pop (concat B) fl in
  if f then mkout (BOpen F B) rep fl1 code [] else mkout (BOpen (F ++ B) []) [] fl1 0 [].

(* drop: shutdown, shutdown, silent flush *)
Definition sb_stop (F B : list bytes) (fl : list bool) : bout :=
  let '(f1, fl1) := wr_pop (concat B) fl in
  if negb f1 then mkout (BStopped (F ++ B)) [] fl1 0 [] else
  let '(f2, fl2) := wr_pop (concat B) fl1 in
  if negb f2 then mkout (BStopped (F ++ B)) [EFlush] fl2 0 [] else
  let '(f3, fl3) := wr_pop (concat B) fl2 in
  if negb f3 then mkout (BStopped (F ++ B)) [EFlush; EFlush] fl3 0 []
  else mkout (BStopped F) [EFlush; EFlush] fl3 0 B.

Definition sb_step (n : nat) (st : bst) (o : op) (fl : list bool) : bout :=
  match st with
  | BStopped _ => mkout st [] fl 3 []
  | BClosed =>
    match o with
    | OWrite b => let '(f, fl1) := pop fl in                                                   (* open/create *)
                  if f then mkout BClosed [EWrite] fl1 0 [b] else sb_write n [] [] b fl1
    | OStop => mkout (BStopped []) [] fl 0 []
    | _ => mkout BClosed [] fl 0 []
    end
  | BOpen F B =>
    match o with
    | OWrite b => sb_write n F B b fl
    | OFlush => sb_flush F B fl [] 1
    | OShutdown => sb_flush F B fl [EFlush] 0
    | OStop => sb_stop F B fl
    | _ => mkout st [] fl 0 []
    end
  end.

(* a history: final state, reports, rest of the oracle, result codes, lost records *)
Fixpoint simb_run (n : nat) (st : bst) (fl : list bool) (ops : list op) : bst * list ecode * list bool * list N * list bytes :=
  match ops with
  | [] => (st, [], fl, [], [])
  | o :: rest =>
    let out := sb_step n st o fl in
    let '(st2, e2, fl2, c2, l2) := simb_run n (o_st out) (o_fl out) rest in
    (st2, o_errs out ++ e2, fl2, o_code out :: c2, o_lost out ++ l2)
  end.

(* the specification as a tuple: file content, buffer content, reported errors, rest of the oracle *)
Definition simb (n : nat) (fl : list bool) (ops : list op) : bytes * bytes * list ecode * list bool :=
  let '(st, e, fl', _, _) := simb_run n BClosed fl ops in (concat (st_file st), concat (st_buf st), e, fl').

(* the operations covered *)
Definition bop (o : op) : Prop := match o with OWrite _ | OFlush | OShutdown => True | _ => False end.
Definition bop_stop (o : op) : Prop := match o with OWrite _ | OFlush | OShutdown | OStop => True | _ => False end.
Definition rec_of (o : op) : list bytes := match o with OWrite b => [b] | _ => [] end.
Definition recs_of (ops : list op) : list bytes := concat (List.map rec_of ops).

(* ------------------------------------------------------------------ one operation *)
Lemma wr_pop_cases b fl :
  (wr_pop b fl = (false, fl) /\ (b = [] \/ fl = []))
  \/ (exists r, fl = false :: r /\ wr_pop b fl = (false, r))
  \/ (exists r, fl = true :: r /\ wr_pop b fl = (true, r) /\ b <> []).
Proof.
  unfold wr_pop. destruct b as [|x b]; [left; auto|].
  destruct fl as [|[|] r]; cbn [pop hd tl].
  - left. auto.
  - right. right. exists r. repeat split. discriminate.
  - right. left. exists r. auto.
Qed.

(* what one operation does, in terms of: the oracle entries it uses (used), the reports, the records.
   - every report has its own failing call (at the drop the third failure is silent);
   - without a failing call: nothing reported, nothing lost, result 0;
   - a loss is reported;
   - what is in the file stays there, in place (the file grows at its end only);
   - the records: either nothing is lost and the incoming record (if any) is accepted, in order; or the call is a log
     call whose own record is lost, and that is reported as EWrite; or it is the drop, all three attempts failed,
     EFlush was reported twice, and what is lost is exactly the content of the buffer *)
Definition step_okb (st : bst) (o : op) (fl : list bool) (out : bout) : Prop :=
  exists used add,
    fl = used ++ o_fl out
    /\ length (o_errs out) <= ntrue used
    /\ (ntrue used = 0 -> o_errs out = [] /\ o_lost out = [] /\ o_code out = 0%N)
    /\ (o_lost out <> [] -> o_errs out <> [])
    /\ st_file (o_st out) = st_file st ++ add
    /\ ((o_lost out = [] /\ nlost (o_errs out) = 0 /\ st_all (o_st out) = st_all st ++ rec_of o)
        \/ (exists b, o = OWrite b /\ o_lost out = [b] /\ st_all (o_st out) = st_all st /\ o_errs out = [EWrite]
                      /\ ntrue used = 1)
        \/ (o = OStop /\ o_lost out = st_buf st /\ st_buf st <> [] /\ o_st out = BStopped (st_file st)
            /\ o_errs out = [EFlush; EFlush] /\ used = [true; true; true])).

Ltac okb_tac used add :=
  exists used, add; cbn [o_st o_errs o_fl o_code o_lost st_file st_buf st_all app length rec_of];
  rewrite ?app_nil_r;
  split; [reflexivity|]; split; [cbn; lia|];
  split; [first [ intros _; repeat split; reflexivity | intros H; cbn in H; discriminate H ]|];
  split; [congruence|]; split; [rewrite ?app_assoc; reflexivity|].
Ltac okb_kept := left; split; [reflexivity|]; split; [reflexivity|]; rewrite ?app_nil_r, ?app_assoc; reflexivity.
Ltac okb_lost b := right; left; exists b; repeat split.

Lemma sb_write_ok n F B b fl : step_okb (BOpen F B) (OWrite b) fl (sb_write n F B b fl).
Proof.
  unfold sb_write, step_okb.
  destruct (length b <? n - length (concat B)) eqn:E1.
  - okb_tac (@nil bool) (@nil bytes). okb_kept.
  - destruct (n - length (concat B) <? length b) eqn:E2.
    + (* flush first *)
      destruct (wr_pop_cases (concat B) fl) as [[-> _] | [[r [-> ->]] | [r [-> [-> Hne]]]]].
      * (* no call or oracle exhausted *)
        destruct (n <=? length b) eqn:E3.
        -- destruct (wr_pop_cases b fl) as [[-> _] | [[r [-> ->]] | [r [-> [-> Hb]]]]].
           ++ okb_tac (@nil bool) (B ++ [b]). okb_kept.
           ++ okb_tac [false] (B ++ [b]). okb_kept.
           ++ okb_tac [true] B. okb_lost b.
        -- okb_tac (@nil bool) B. okb_kept.
      * (* the flush succeeds *)
        destruct (n <=? length b) eqn:E3.
        -- destruct (wr_pop_cases b r) as [[-> _] | [[r2 [-> ->]] | [r2 [-> [-> Hb]]]]].
           ++ okb_tac [false] (B ++ [b]). okb_kept.
           ++ okb_tac [false; false] (B ++ [b]). okb_kept.
           ++ okb_tac [false; true] B. okb_lost b.
        -- okb_tac [false] B. okb_kept.
      * (* the flush fails: the incoming record is lost, the buffer keeps its content *)
        okb_tac [true] (@nil bytes). okb_lost b.
    + (* the record fills the buffer exactly, or (empty buffer) is written directly *)
      destruct (n <=? length b) eqn:E3.
      * destruct (wr_pop_cases b fl) as [[-> _] | [[r [-> ->]] | [r [-> [-> Hb]]]]].
        -- okb_tac (@nil bool) (B ++ [b]). okb_kept.
        -- okb_tac [false] (B ++ [b]). okb_kept.
        -- okb_tac [true] (@nil bytes). okb_lost b.
      * okb_tac (@nil bool) (@nil bytes). okb_kept.
Qed.

Lemma sb_flush_ok F B fl rep code o : rec_of o = [] -> length rep <= 1 -> nlost rep = 0 ->
  step_okb (BOpen F B) o fl (sb_flush F B fl rep code).
Proof.
  intros Ho Hrep Hnl. unfold sb_flush, step_okb. cbn [st_file st_buf st_all]. rewrite Ho.
  destruct (wr_pop_cases (concat B) fl) as [[-> _] | [[r [-> ->]] | [r [-> [-> Hne]]]]].
  - exists [], B. cbn [o_st o_errs o_fl o_code o_lost st_file st_buf st_all app length]. rewrite !app_nil_r.
    split; [reflexivity|]. split; [cbn; lia|]. split; [auto|]. split; [congruence|]. split; [reflexivity|]. left. auto.
  - exists [false], B. cbn [o_st o_errs o_fl o_code o_lost st_file st_buf st_all app length]. rewrite !app_nil_r.
    split; [reflexivity|]. split; [cbn; lia|]. split; [auto|]. split; [congruence|]. split; [reflexivity|]. left. auto.
  - exists [true], []. cbn [o_st o_errs o_fl o_code o_lost st_file st_buf st_all app length]. rewrite !app_nil_r.
    split; [reflexivity|]. split; [cbn; lia|]. split; [cbn; lia|]. split; [congruence|]. split; [reflexivity|]. left. auto.
Qed.

Lemma sb_stop_ok F B fl : step_okb (BOpen F B) OStop fl (sb_stop F B fl).
Proof.
  unfold sb_stop.
  assert (Good : forall used fl' e, fl = used ++ fl' -> length e <= ntrue used -> (ntrue used = 0 -> e = []) -> nlost e = 0 ->
    step_okb (BOpen F B) OStop fl (mkout (BStopped (F ++ B)) e fl' 0 [])).
  { intros used fl' e H1 H2 H3 H4. exists used, B. unfold st_all. cbn [o_st o_errs o_fl o_code o_lost st_file st_buf rec_of].
    split; [exact H1|]. split; [exact H2|]. split; [intros H; auto|].
    split; [congruence|]. split; [reflexivity|]. left. rewrite !app_nil_r. split; [reflexivity|]. split; [exact H4 | reflexivity]. }
  destruct (wr_pop_cases (concat B) fl) as [[-> _] | [[r [-> ->]] | [r [-> [-> Hne]]]]]; cbn [negb].
  - apply (Good [] fl []); [reflexivity | cbn; lia | auto | reflexivity].
  - apply (Good [false] r []); [reflexivity | cbn; lia | auto | reflexivity].
  - destruct (wr_pop_cases (concat B) r) as [[-> [Hc| ->]] | [[r2 [-> ->]] | [r2 [-> [-> _]]]]]; cbn [negb].
    + contradiction.
    + apply (Good [true] [] [EFlush]); [reflexivity | cbn; lia | cbn; lia | reflexivity].
    + apply (Good [true; false] r2 [EFlush]); [reflexivity | cbn; lia | cbn; lia | reflexivity].
    + destruct (wr_pop_cases (concat B) r2) as [[-> [Hc| ->]] | [[r3 [-> ->]] | [r3 [-> [-> _]]]]]; cbn [negb].
      * contradiction.
      * apply (Good [true; true] [] [EFlush; EFlush]); [reflexivity | cbn; lia | cbn; lia | reflexivity].
      * apply (Good [true; true; false] r3 [EFlush; EFlush]); [reflexivity | cbn; lia | cbn; lia | reflexivity].
      * exists [true; true; true], []. cbn [o_st o_errs o_fl o_code o_lost st_file st_buf st_all app length rec_of]. rewrite !app_nil_r.
        split; [reflexivity|]. split; [cbn; lia|]. split; [cbn; lia|]. split; [congruence|]. split; [reflexivity|].
        right. right. repeat split. intros ->. apply Hne. reflexivity.
Qed.

Theorem sb_step_ok n st o fl : live st -> bop_stop o -> step_okb st o fl (sb_step n st o fl).
Proof.
  intros Hl Ho.
  assert (Nop : forall st0, rec_of o = [] -> step_okb st0 o fl (mkout st0 [] fl 0 [])).
  { intros st0 Hr. exists [], []. cbn [o_st o_errs o_fl o_code o_lost app length]. rewrite Hr, !app_nil_r.
    split; [reflexivity|]. split; [cbn; lia|]. split; [auto|]. split; [congruence|]. split; [reflexivity|]. left. auto. }
  destruct st as [|F B|F]; [| |contradiction]; cbn [sb_step].
  - destruct o; try contradiction; try (apply Nop; reflexivity).
    + (* the first record: open *)
      destruct (pop_cases fl) as [[-> ->] | [f [r [-> ->]]]].
      * apply (sb_write_ok n [] [] b []).
      * destruct f.
        -- exists [true], []. cbn [o_st o_errs o_fl o_code o_lost st_file st_buf st_all app length].
           split; [reflexivity|]. split; [cbn; lia|]. split; [cbn; lia|]. split; [congruence|]. split; [reflexivity|].
           right. left. exists b. repeat split.
        -- destruct (sb_write_ok n [] [] b r) as [used [add H]]. exists (false :: used), add.
           rewrite ntrue_cons. cbn [plus]. destruct H as [H1 [H2 [H3 [H4 [H5 H6]]]]].
           split; [cbn [app]; rewrite <- H1; reflexivity|]. split; [exact H2|]. split; [exact H3|]. split; [exact H4|].
           split; [exact H5|]. destruct H6 as [H6 | [H6 | [H6 _]]]; [left; exact H6 | right; left; exact H6 | discriminate H6].
    + exists [], []. cbn [o_st o_errs o_fl o_code o_lost st_file st_buf st_all app length rec_of].
      split; [reflexivity|]. split; [cbn; lia|]. split; [auto|]. split; [congruence|]. split; [reflexivity|]. left. auto.
  - destruct o; try contradiction.
    + apply sb_write_ok.
    + apply sb_flush_ok; [reflexivity | cbn; lia | reflexivity].
    + apply sb_flush_ok; [reflexivity | cbn; lia | reflexivity].
    + apply sb_stop_ok.
Qed.

Lemma sb_write_live n F B b fl : live (o_st (sb_write n F B b fl)).
Proof.
  unfold sb_write.
  repeat match goal with
         | |- context [if ?c then _ else _] => destruct c
         | |- context [let '(_, _) := ?p in _] => destruct p
         end; exact I.
Qed.

Lemma sb_step_live n st o fl : live st -> bop o -> live (o_st (sb_step n st o fl)).
Proof.
  intros Hl Ho. destruct st as [|F B|F]; [| |contradiction]; cbn [sb_step]; destruct o; try contradiction; try exact I.
  - destruct (pop fl) as [f fl1]. destruct f; [exact I | apply sb_write_live].
  - apply sb_write_live.
  - unfold sb_flush. destruct (wr_pop (concat B) fl) as [f fl1]. destruct f; exact I.
  - unfold sb_flush. destruct (wr_pop (concat B) fl) as [f fl1]. destruct f; exact I.
Qed.

(* ------------------------------------------------------------------ whole histories *)
Lemma simb_run_app n : forall ops1 ops2 st fl,
  simb_run n st fl (ops1 ++ ops2)
  = let '(st1, e1, fl1, c1, l1) := simb_run n st fl ops1 in
    let '(st2, e2, fl2, c2, l2) := simb_run n st1 fl1 ops2 in (st2, e1 ++ e2, fl2, c1 ++ c2, l1 ++ l2).
Proof.
  induction ops1 as [|o rest IH]; intros ops2 st fl; cbn [Datatypes.app simb_run].
  - destruct (simb_run n st fl ops2) as [[[[st2 e2] fl2] c2] l2]. reflexivity.
  - rewrite IH. destruct (simb_run n (o_st (sb_step n st o fl)) (o_fl (sb_step n st o fl)) rest) as [[[[st1 e1] fl1] c1] l1].
    destruct (simb_run n st1 fl1 ops2) as [[[[st2 e2] fl2] c2] l2]. rewrite !app_assoc. reflexivity.
Qed.

Lemma recs_of_cons o ops : recs_of (o :: ops) = rec_of o ++ recs_of ops.
Proof. reflexivity. Qed.
Lemma recs_of_app a b : recs_of (a ++ b) = recs_of a ++ recs_of b.
Proof. unfold recs_of. rewrite map_app, concat_app. reflexivity. Qed.

Lemma subseq_refl l : Subseq l l.
Proof. induction l; constructor; assumption. Qed.
Lemma subseq_app a b c d : Subseq a b -> Subseq c d -> Subseq (a ++ c) (b ++ d).
Proof. intros H. induction H; intros K; cbn [app]; [exact K | constructor; auto | constructor; auto]. Qed.
Lemma subseq_nil l : Subseq [] l.
Proof. induction l; constructor; assumption. Qed.

(* log calls, flushes and shutdowns (no drop yet): the accepted records - those in the file followed by those in the
   buffer - are the records of the history in order, each once, without the lost ones; each lost record is the
   incoming record of a log call that reported EWrite (one EWrite per lost record); what is in the file stays *)
Theorem simb_run_records n : forall ops st fl, live st -> Forall bop ops ->
  let '(st', e, fl', codes, lost) := simb_run n st fl ops in
  live st'
  /\ exists kept used add,
       Subseq kept (recs_of ops) /\ st_all st' = st_all st ++ kept
       /\ Subseq lost (recs_of ops)
       /\ length (recs_of ops) = length kept + length lost
       /\ length lost = nlost e
       /\ fl = used ++ fl' /\ length e <= ntrue used
       /\ st_file st' = st_file st ++ add.
Proof.
  induction ops as [|o rest IH]; intros st fl Hl Hb; cbn [simb_run].
  - split; [exact Hl|]. exists [], [], []. cbn. rewrite !app_nil_r. repeat split; try constructor.
  - inversion Hb as [|o' r' Ho Hr]; subst o' r'.
    assert (Ho' : bop_stop o) by (destruct o; try contradiction; exact I).
    pose proof (sb_step_ok n st o fl Hl Ho') as S. pose proof (sb_step_live n st o fl Hl Ho) as L. unfold step_okb in S.
    destruct (sb_step n st o fl) as [st1 e1 fl1 c1 l1]. cbn [o_st o_errs o_fl o_code o_lost] in *.
    specialize (IH st1 fl1 L Hr). destruct (simb_run n st1 fl1 rest) as [[[[st2 e2] fl2] c2] l2].
    destruct IH as [L2 [kept [used2 [add2 [K1 [K2 [K3 [K4 [K5 [K6 [K7 K8]]]]]]]]]]].
    destruct S as [used [add [S1 [S2 [S3 [S4 [S5 S6]]]]]]].
    split; [exact L2|]. rewrite recs_of_cons.
    assert (Hfl : fl = (used ++ used2) ++ fl2) by (rewrite S1, K6, app_assoc; reflexivity).
    assert (He : length (e1 ++ e2) <= ntrue (used ++ used2)) by (rewrite app_length, ntrue_app; lia).
    assert (Hf : st_file st2 = st_file st ++ (add ++ add2)) by (rewrite K8, S5, app_assoc; reflexivity).
    destruct S6 as [[-> [Hn Ha]] | [[b [-> [-> [Ha [-> Hn]]]]] | [-> _]]]; [| |contradiction].
    + exists (rec_of o ++ kept), (used ++ used2), (add ++ add2).
      split; [apply subseq_app; [apply subseq_refl | exact K1]|].
      split; [rewrite K2, Ha, <- app_assoc; reflexivity|].
      split; [cbn [app]; rewrite <- (app_nil_l l2); apply subseq_app; [apply subseq_nil | exact K3]|].
      split; [cbn [app]; rewrite !app_length; lia|].
      split; [cbn [app]; rewrite nlost_app; lia|]. auto.
    + exists kept, (used ++ used2), (add ++ add2). cbn [rec_of app].
      split; [constructor; exact K1|].
      split; [rewrite K2, Ha; reflexivity|].
      split; [constructor; exact K3|].
      split; [cbn [length]; lia|].
      split; [change (EWrite :: e2) with ([EWrite] ++ e2); rewrite nlost_app; cbn [length nlost filter is_ewrite]; cbn; lia|]. auto.
Qed.

(* the final drop: either nothing is lost (the file then holds all accepted records; up to two failed attempts may
   have been reported all the same), or all three attempts fail: EFlush, EFlush, and what was in the buffer is lost *)
Theorem simb_run_stop n ops st fl : live st ->
  let '(st1, e1, fl1, c1, l1) := simb_run n st fl ops in
  live st1 ->
  let '(st2, e2, fl2, c2, l2) := simb_run n st fl (ops ++ [OStop]) in
  exists e' used, e2 = e1 ++ e' /\ c2 = c1 ++ [0%N] /\ fl1 = used ++ fl2 /\ length e' <= ntrue used /\ nlost e' = 0
    /\ ((st2 = BStopped (st_all st1) /\ l2 = l1)
        \/ (st2 = BStopped (st_file st1) /\ l2 = l1 ++ st_buf st1 /\ st_buf st1 <> [] /\ e' = [EFlush; EFlush]
            /\ used = [true; true; true])).
Proof.
  intros Hl. rewrite simb_run_app. destruct (simb_run n st fl ops) as [[[[st1 e1] fl1] c1] l1]. intros L1.
  cbn [simb_run]. pose proof (sb_step_ok n st1 OStop fl1 L1 I) as S. unfold step_okb in S.
  assert (Hst : exists F, o_st (sb_step n st1 OStop fl1) = BStopped F /\ o_code (sb_step n st1 OStop fl1) = 0%N).
  { destruct st1 as [|F B|F]; [| |contradiction]; cbn [sb_step o_st o_code]; [eauto|]. unfold sb_stop.
    repeat match goal with
           | |- context [if ?c then _ else _] => destruct c
           | |- context [let '(_, _) := ?p in _] => destruct p
           end; cbn [o_st o_code]; eexists; split; reflexivity. }
  destruct (sb_step n st1 OStop fl1) as [st2 e' fl2 c' l']. cbn [o_st o_errs o_fl o_code o_lost] in *.
  destruct Hst as [F2 [-> ->]]. destruct S as [used [add [S1 [S2 [S3 [S4 [S5 S6]]]]]]].
  exists e', used. rewrite !app_nil_r. split; [reflexivity|]. split; [reflexivity|]. split; [exact S1|]. split; [exact S2|].
  destruct S6 as [[-> [Hn Ha]] | [[b [Hb _]] | [_ [-> [Hne [E [-> ->]]]]]]]; [|discriminate Hb|].
  - split; [exact Hn|]. left. rewrite app_nil_r. split; [|reflexivity].
    unfold st_all in Ha at 1. cbn [st_file st_buf rec_of] in Ha. rewrite !app_nil_r in Ha. rewrite Ha. reflexivity.
  - split; [reflexivity|]. right. auto.
Qed.

(* ------------------------------------------------------------------ record by record *)
(* per operation: the operation, the state before it, what it yields, the oracle entries it consumed *)
Record bentry := { t_op : op; t_before : bst; t_out : bout; t_usedb : list bool }.
Fixpoint btrace (n : nat) (st : bst) (fl : list bool) (ops : list op) : list bentry :=
  match ops with
  | [] => []
  | o :: rest =>
    let out := sb_step n st o fl in
    {| t_op := o; t_before := st; t_out := out; t_usedb := firstn (length fl - length (o_fl out)) fl |}
      :: btrace n (o_st out) (o_fl out) rest
  end.

(* - every report of the operation has its own failing call among the consumed entries;
   - an operation that consumed no failing entry reports nothing, loses nothing and returns 0;
   - an operation that loses something reports something (and a call of it failed): every loss is announced;
   - a record that is lost by the operation is its own incoming record (log call), or was in the buffer when the
     final flush of the drop failed;
   - what was in the file before the operation is there afterwards, at the same place *)
Definition entry_ok (x : bentry) : Prop :=
  let out := t_out x in
  length (o_errs out) <= ntrue (t_usedb x)
  /\ (ntrue (t_usedb x) = 0 -> o_errs out = [] /\ o_lost out = [] /\ o_code out = 0%N)
  /\ (o_lost out <> [] -> o_errs out <> [] /\ In true (t_usedb x))
  /\ (forall r, In r (o_lost out) -> t_op x = OWrite r \/ (t_op x = OStop /\ In r (st_buf (t_before x))))
  /\ (exists add, st_file (o_st out) = st_file (t_before x) ++ add).

Lemma ntrue_pos_in l : 1 <= ntrue l -> In true l.
Proof.
  intros H. destruct (in_dec Bool.bool_dec true l) as [Hi|Hi]; [exact Hi|]. exfalso.
  assert (Hall : forall f, In f l -> f = false) by (intros [|] Hf; [contradiction | reflexivity]).
  apply ntrue_0_all_false in Hall. lia.
Qed.

Lemma step_okb_entry st o fl out : step_okb st o fl out ->
  entry_ok {| t_op := o; t_before := st; t_out := out; t_usedb := firstn (length fl - length (o_fl out)) fl |}.
Proof.
  intros [used [add [S1 [S2 [S3 [S4 [S5 S6]]]]]]]. unfold entry_ok. cbn [t_op t_before t_out t_usedb].
  pose proof (firstn_used used (o_fl out)) as Hu. rewrite <- S1 in Hu. rewrite !Hu.
  split; [exact S2|]. split; [exact S3|].
  split. { intros Hl. specialize (S4 Hl). split; [exact S4|]. apply ntrue_pos_in. destruct (o_errs out) eqn:Ee; [congruence | cbn [length] in S2; lia]. }
  split; [|exists add; exact S5].
  intros r Hr. destruct S6 as [[E _] | [[b [-> [E _]]] | [-> [E _]]]].
  - rewrite E in Hr. contradiction.
  - rewrite E in Hr. destruct Hr as [<-|[]]. left. reflexivity.
  - rewrite E in Hr. right. auto.
Qed.

Lemma sb_step_used n st o fl : bop_stop o -> exists used, fl = used ++ o_fl (sb_step n st o fl).
Proof.
  intros Ho. destruct st as [|F B|F].
  - destruct (sb_step_ok n BClosed o fl I Ho) as [used [_ [H _]]]. eauto.
  - destruct (sb_step_ok n (BOpen F B) o fl I Ho) as [used [_ [H _]]]. eauto.
  - exists []. reflexivity.
Qed.

Theorem simb_trace n : forall ops st fl, Forall bop_stop ops ->
  let '(st', e, fl', codes, lost) := simb_run n st fl ops in
  let t := btrace n st fl ops in
  List.map t_op t = ops
  /\ fl = concat (List.map t_usedb t) ++ fl'
  /\ e = concat (List.map (fun x => o_errs (t_out x)) t)
  /\ lost = concat (List.map (fun x => o_lost (t_out x)) t)
  /\ codes = List.map (fun x => o_code (t_out x)) t
  /\ Forall (fun x => live (t_before x) -> entry_ok x) t.
Proof.
  induction ops as [|o rest IH]; intros st fl Hb; cbn [simb_run btrace].
  - cbn. repeat split. constructor.
  - inversion Hb as [|o' r' Ho Hr]; subst o' r'.
    destruct (sb_step_used n st o fl Ho) as [used Hu].
    assert (E : forall Hl : live st, step_okb st o fl (sb_step n st o fl)) by (intros Hl; apply sb_step_ok; assumption).
    destruct (sb_step n st o fl) as [st1 e1 fl1 c1 l1] eqn:Es. cbn [o_st o_errs o_fl o_code o_lost] in *.
    specialize (IH st1 fl1 Hr). destruct (simb_run n st1 fl1 rest) as [[[[st2 e2] fl2] c2] l2]. cbv zeta in IH.
    destruct IH as [H1 [H2 [H3 [H4 [H5 H6]]]]]. cbv zeta. cbn [List.map concat t_op t_usedb t_out o_errs o_lost o_code].
    split; [rewrite H1; reflexivity|].
    split. { pose proof (firstn_used used fl1) as Hx. rewrite <- Hu in Hx. rewrite Hx, <- app_assoc, <- H2. exact Hu. }
    split; [rewrite H3; reflexivity|]. split; [rewrite H4; reflexivity|]. split; [rewrite H5; reflexivity|].
    constructor; [|exact H6]. cbn [t_before]. intros Hl.
    exact (step_okb_entry st o fl _ (E Hl)).
Qed.

(* "every loss is announced", counted: the number of operations that lose something is at most the number of reports *)
Definition loses (x : bentry) : bool := match o_lost (t_out x) with [] => false | _ => true end.
Lemma losses_le_reports (t : list bentry) :
  Forall (fun x => o_lost (t_out x) <> [] -> o_errs (t_out x) <> []) t ->
  length (filter loses t) <= length (concat (List.map (fun x => o_errs (t_out x)) t)).
Proof.
  induction 1 as [|x r Hx Hr IH]; cbn [filter List.map concat length]; [lia|].
  rewrite app_length. unfold loses at 1. destruct (o_lost (t_out x)) eqn:El; [lia|].
  cbn [length]. assert (He : o_errs (t_out x) <> []) by (apply Hx; discriminate).
  destruct (o_errs (t_out x)); [congruence | cbn [length]; lia].
Qed.

(* ------------------------------------------------------------------ recovery *)
Lemma all_false_app a b : all_false (a ++ b) -> all_false a /\ all_false b.
Proof. intros H. split; intros f Hf; apply H, in_or_app; [left | right]; exact Hf. Qed.

Lemma wr_pop_all_false b fl : all_false fl -> fst (wr_pop b fl) = false /\ all_false (snd (wr_pop b fl)).
Proof. intros H. unfold wr_pop. destruct b; [split; [reflexivity | exact H] | apply pop_all_false; exact H]. Qed.

(* one operation when no more failures come *)
Lemma sb_step_recovered n st o fl : all_false fl -> live st -> bop_stop o ->
  let out := sb_step n st o fl in
  o_errs out = [] /\ o_lost out = [] /\ o_code out = 0%N /\ all_false (o_fl out)
  /\ st_all (o_st out) = st_all st ++ rec_of o
  /\ (o = OFlush \/ o = OShutdown \/ o = OStop -> st_buf (o_st out) = []).
Proof.
  intros Hf Hl Ho. cbv zeta. destruct (sb_step_ok n st o fl Hl Ho) as [used [add [S1 [S2 [S3 [S4 [S5 S6]]]]]]].
  rewrite S1 in Hf. apply all_false_app in Hf. destruct Hf as [Hu Hf'].
  assert (Hn : ntrue used = 0) by (apply ntrue_0_all_false; exact Hu).
  destruct (S3 Hn) as [E1 [E2 E3]]. split; [exact E1|]. split; [exact E2|]. split; [exact E3|]. split; [exact Hf'|].
  split.
  - destruct S6 as [[_ [_ Ha]] | [[b [_ [_ [_ [_ H1]]]]] | [_ [_ [_ [_ [_ Hu3]]]]]]]; [exact Ha | lia | subst used; cbn in Hn; lia].
  - assert (Hfl : all_false fl) by (rewrite S1; intros f Hi; apply in_app_or in Hi; destruct Hi; auto).
    intros Hflush. destruct st as [|F B|F]; [| |contradiction]; cbn [sb_step].
    + destruct Hflush as [->|[->| ->]]; reflexivity.
    + destruct (wr_pop_all_false (concat B) fl Hfl) as [W1 _].
      destruct Hflush as [->|[->| ->]]; unfold sb_flush, sb_stop; destruct (wr_pop (concat B) fl) as [f fl1]; cbn [fst] in W1; subst f; reflexivity.
Qed.

(* once no more failures come: nothing more is reported, nothing more is lost, every call returns 0, every further
   record is accepted behind what is already there (file, then buffer) *)
Theorem recovery_spec_b n : forall ops st fl, all_false fl -> live st -> Forall bop ops ->
  let '(st', e, fl', codes, lost) := simb_run n st fl ops in
  e = [] /\ lost = [] /\ Forall (fun k => k = 0%N) codes /\ all_false fl' /\ live st'
  /\ st_all st' = st_all st ++ recs_of ops.
Proof.
  induction ops as [|o rest IH]; intros st fl Hf Hl Hb; cbn [simb_run].
  - cbn. rewrite app_nil_r. repeat split; auto.
  - inversion Hb as [|o' r' Ho Hr]; subst o' r'.
    assert (Ho' : bop_stop o) by (destruct o; try contradiction; exact I).
    pose proof (sb_step_recovered n st o fl Hf Hl Ho') as S. pose proof (sb_step_live n st o fl Hl Ho) as L. cbv zeta in S.
    destruct (sb_step n st o fl) as [st1 e1 fl1 c1 l1]. cbn [o_st o_errs o_fl o_code o_lost] in *.
    destruct S as [-> [-> [-> [Hf1 [Ha _]]]]].
    specialize (IH st1 fl1 Hf1 L Hr). destruct (simb_run n st1 fl1 rest) as [[[[st2 e2] fl2] c2] l2].
    destruct IH as [-> [-> [Hc [Hf2 [L2 Ha2]]]]].
    split; [reflexivity|]. split; [reflexivity|]. split; [constructor; [reflexivity | exact Hc]|]. split; [exact Hf2|].
    split; [exact L2|]. rewrite Ha2, Ha, recs_of_cons, app_assoc. reflexivity.
Qed.

Definition final_op (o : op) : Prop := o = OFlush \/ o = OShutdown \/ o = OStop.

(* ... and after the next flush / shutdown / drop all of them are in the file, in order *)
Theorem recovery_flush_b n ops f st fl : all_false fl -> live st -> Forall bop ops -> final_op f ->
  let '(st', e, fl', codes, lost) := simb_run n st fl (ops ++ [f]) in
  e = [] /\ lost = [] /\ Forall (fun k => k = 0%N) codes /\ all_false fl'
  /\ st_file st' = st_all st ++ recs_of ops /\ st_buf st' = [].
Proof.
  intros Hf Hl Hb Hfin. rewrite simb_run_app. pose proof (recovery_spec_b n ops st fl Hf Hl Hb) as R.
  destruct (simb_run n st fl ops) as [[[[st1 e1] fl1] c1] l1]. destruct R as [-> [-> [Hc [Hf1 [L1 Ha]]]]].
  cbn [simb_run].
  assert (Ho' : bop_stop f) by (destruct Hfin as [->|[->| ->]]; exact I).
  pose proof (sb_step_recovered n st1 f fl1 Hf1 L1 Ho') as S. cbv zeta in S.
  destruct (sb_step n st1 f fl1) as [st2 e2 fl2 c2 l2]. cbn [o_st o_errs o_fl o_code o_lost] in *.
  destruct S as [-> [-> [-> [Hf2 [Ha2 Hbuf]]]]]. specialize (Hbuf Hfin).
  cbn [app]. split; [reflexivity|]. split; [reflexivity|].
  split; [apply Forall_app; split; [exact Hc | constructor; [reflexivity | constructor]]|]. split; [exact Hf2|].
  split; [|exact Hbuf]. unfold st_all in Ha2 at 1. rewrite Hbuf, app_nil_r in Ha2. rewrite Ha2, Ha.
  destruct Hfin as [->|[->| ->]]; cbn [rec_of]; rewrite app_nil_r; reflexivity.
Qed.

(* in the form of FaultRotSpec.recovery_rotation: a history ops1 after which the rest of the oracle holds no failure,
   continued by ops2 and a final flush / shutdown / drop: nothing more is reported, nothing more is lost, the file holds
   what was accepted after ops1 (file and buffer) followed by all records of ops2 *)
Theorem buffered_recovery n fl ops1 ops2 f : Forall bop ops1 -> Forall bop ops2 -> final_op f ->
  let '(st1, e1, fl1, _, l1) := simb_run n BClosed fl ops1 in
  all_false fl1 ->
  let '(st2, e2, fl2, c2, l2) := simb_run n BClosed fl (ops1 ++ ops2 ++ [f]) in
  e2 = e1 /\ l2 = l1 /\ st_file st2 = st_all st1 ++ recs_of ops2 /\ st_buf st2 = [] /\ all_false fl2.
Proof.
  intros H1 H2 Hfin. rewrite simb_run_app. pose proof (simb_run_records n ops1 BClosed fl I H1) as R.
  destruct (simb_run n BClosed fl ops1) as [[[[st1 e1] fl1] c1] l1]. destruct R as [L1 _]. intros Hf.
  pose proof (recovery_flush_b n ops2 f st1 fl1 Hf L1 H2 Hfin) as R.
  destruct (simb_run n st1 fl1 (ops2 ++ [f])) as [[[[st2 e2] fl2] c2] l2].
  destruct R as [-> [-> [_ [Hf2 [Hfile Hbuf]]]]]. rewrite !app_nil_r. auto.
Qed.

(* without failures: everything is in the file after the drop *)
Corollary no_faults_buffered n ops : Forall bop ops ->
  let '(st, e, _, codes, lost) := simb_run n BClosed [] (ops ++ [OStop]) in
  e = [] /\ lost = [] /\ Forall (fun k => k = 0%N) codes /\ st_file st = recs_of ops /\ st_buf st = [].
Proof.
  intros Hb. assert (Hf : all_false []) by (intros f []).
  pose proof (recovery_flush_b n ops OStop BClosed [] Hf I Hb (or_intror (or_intror eq_refl))) as R.
  destruct (simb_run n BClosed [] (ops ++ [OStop])) as [[[[st e] fl'] c] l]. destruct R as [-> [-> [Hc [_ [Hfile Hbuf]]]]]. auto.
Qed.

(* ------------------------------------------------------------------ the loss is bounded and announced *)
Lemma subseq_trans : forall b c, Subseq b c -> forall a, Subseq a b -> Subseq a c.
Proof.
  induction 1 as [|x b c H IH|x b c H IH]; intros a Ha.
  - exact Ha.
  - inversion Ha as [|y a' b' Ha'|y a' b' Ha']; subst; [constructor; apply IH; exact Ha' | apply sub_drop; apply IH; exact Ha'].
  - apply sub_drop. apply IH. exact Ha.
Qed.
Lemma subseq_prefix (a b : list bytes) : Subseq a (a ++ b).
Proof. induction a as [|x a IH]; cbn [app]; [apply subseq_nil | constructor; exact IH]. Qed.

Lemma btrace_live n : forall ops st fl, live st -> Forall bop ops ->
  Forall (fun x => live (t_before x)) (btrace n st fl (ops ++ [OStop])).
Proof.
  induction ops as [|o rest IH]; intros st fl Hl Hb; cbn [app btrace].
  - constructor; [exact Hl | constructor].
  - inversion Hb as [|o' r' Ho Hr]; subst o' r'. constructor; [exact Hl|].
    apply IH; [apply sb_step_live; assumption | exact Hr].
Qed.

(* a history of log calls, flushes and shutdowns, ended by the drop of the writer.  The file then holds the
   concatenation of `kept`, a subsequence of the records (in order, nothing duplicated); the other records are `lost`
   (as many as are missing); with t the list of operations (trace): each of them reports at most as many errors as
   calls of it failed; an operation without a failing call loses nothing; an operation that loses something has
   reported it; a lost record is the incoming record of a log call whose write / flush / open failed, or was in the
   buffer when the last flush attempt of the drop failed (never a record that was in the file already: what is in the
   file stays); the number of operations that lose something is at most the number of reports. *)
Theorem buffered_loss_bounded_spec n fl ops : Forall bop ops ->
  let '(st, e, fl', codes, lost) := simb_run n BClosed fl (ops ++ [OStop]) in
  let t := btrace n BClosed fl (ops ++ [OStop]) in
  exists kept,
    st = BStopped kept
    /\ Subseq kept (recs_of ops)
    /\ length (recs_of ops) = length kept + length lost
    /\ List.map t_op t = ops ++ [OStop]
    /\ e = concat (List.map (fun x => o_errs (t_out x)) t)
    /\ lost = concat (List.map (fun x => o_lost (t_out x)) t)
    /\ fl = concat (List.map t_usedb t) ++ fl'
    /\ Forall entry_ok t
    /\ length (filter loses t) <= length e.
Proof.
  intros Hb.
  assert (Hbs : Forall bop_stop (ops ++ [OStop])).
  { apply Forall_app. split; [|constructor; [exact I | constructor]].
    eapply Forall_impl; [|exact Hb]. intros o Ho. destruct o; try contradiction; exact I. }
  pose proof (simb_trace n (ops ++ [OStop]) BClosed fl Hbs) as T.
  pose proof (simb_run_stop n ops BClosed fl I) as St.
  pose proof (simb_run_records n ops BClosed fl I Hb) as R.
  pose proof (btrace_live n ops BClosed fl I Hb) as Lv.
  destruct (simb_run n BClosed fl ops) as [[[[st1 e1] fl1] c1] l1].
  destruct R as [L1 [kept1 [used1 [add1 [K1 [K2 [K3 [K4 [K5 [K6 [K7 K8]]]]]]]]]]]. specialize (St L1).
  destruct (simb_run n BClosed fl (ops ++ [OStop])) as [[[[st2 e2] fl2] c2] l2]. cbv zeta in T |- *.
  destruct T as [T1 [T2 [T3 [T4 [T5 T6]]]]].
  destruct St as [e' [used' [E1 [E2 [E3 [E4 [E5 E6]]]]]]].
  assert (Tok : Forall entry_ok (btrace n BClosed fl (ops ++ [OStop]))).
  { rewrite Forall_forall in *. intros x Hx. apply T6; [exact Hx | apply Lv; exact Hx]. }
  assert (Cnt : length (filter loses (btrace n BClosed fl (ops ++ [OStop]))) <= length e2).
  { rewrite T3. apply losses_le_reports. eapply Forall_impl; [|exact Tok].
    intros x [_ [_ [H _]]] Hl. apply H. exact Hl. }
  cbn [st_all st_file st_buf app] in K2.
  destruct E6 as [[-> ->] | [-> [-> [Hne _]]]].
  - exists (st_all st1). split; [reflexivity|]. rewrite K2. split; [exact K1|]. split; [exact K4|]. auto 10.
  - exists (st_file st1). split; [reflexivity|].
    split. { apply (subseq_trans kept1 _ K1). rewrite <- K2. apply subseq_prefix. }
    split. { rewrite K4, <- K2. unfold st_all. rewrite !app_length. lia. }
    auto 10.
Qed.

Print Assumptions sb_step_ok.
Print Assumptions simb_run_records.
Print Assumptions simb_run_stop.
Print Assumptions simb_trace.
Print Assumptions buffered_loss_bounded_spec.
Print Assumptions buffered_recovery.
Print Assumptions no_faults_buffered.
