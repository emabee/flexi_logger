(* reopen_outputfile and reset switch files without losing or reordering records.
   Configuration: no rotation, one log file, no start-time name part, no symlink, synchronous; any buffer capacity.
   Histories: writes / raw writes / flushes, interleaved with "switches":
     - somebody renames the log file away, then reopen_outputfile()        (OExtRename log moved; OReopen)
     - somebody removes the log file, then reopen_outputfile()             (OExtRemove log; OReopen)
     - reset to a new configuration with another file name                 (OReset c2)
   Result (for ALL such histories, quiet world): after the writer is dropped, the directory consists exactly of the
   files computed by a small abstract machine; without removals their contents, in switch order, tile the stream. *)
Require Import FL.Base.Bytes FL.Base.BytesFacts FL.Fs.Fs FL.Fs.FsFacts FL.Names.FileSpec FL.Flw.Model FL.Flw.ModelFacts FL.Flw.QuietFacts
  FL.Flw.NumFs FL.Flw.Run FL.Flw.RunFacts FL.Flw.FaultFacts.
From Coq Require Import Permutation.
Open Scope nat_scope.

(* ================================================================== file-system layer *)
Definition plainf (fl : file) : Prop := fgz fl = 0%N /\ fdir fl = false.

(* what a reader sees under a name *)
Definition fview (f : fs) (n : bytes) : option bytes :=
  match lookup f n with Some i => Some (content f i) | None => None end.

Lemma find_name_in {A} (l : list (bytes * A)) n :
  find (fun p => beq (fst p) n) l <> None <-> In n (List.map fst l).
Proof.
  induction l as [|[m j] l IH]; cbn [find List.map fst In].
  - split; [congruence | tauto].
  - destruct (beq_spec m n) as [->|Hn].
    + split; [auto | discriminate].
    + rewrite IH. split; [auto | intros [H|H]; [contradiction | exact H]].
Qed.

Lemma lookup_in f n : lookup f n <> None <-> In n (dir_names f).
Proof.
  unfold lookup, dir_names. rewrite <- find_name_in.
  destruct (find (fun p => beq (fst p) n) (names f)); split; congruence.
Qed.
Lemma lookup_none_notin f n : lookup f n = None -> ~ In n (dir_names f).
Proof. intros H Hin. apply lookup_in in Hin. contradiction. Qed.

Lemma in_fst_filter {A} (p : bytes * A -> bool) (l : list (bytes * A)) n :
  In n (List.map fst (filter p l)) -> exists y, In (n, y) l /\ p (n, y) = true.
Proof.
  intros H. apply in_map_iff in H. destruct H as [[m y] [E H]]. cbn [fst] in E. subst m.
  apply filter_In in H. exists y. exact H.
Qed.
Lemma nodup_fst_filter {A} (p : bytes * A -> bool) (l : list (bytes * A)) :
  NoDup (List.map fst l) -> NoDup (List.map fst (filter p l)).
Proof.
  induction l as [|[m y] l IH]; cbn [filter List.map fst]; intros H; [constructor|].
  inversion H as [|? ? Hm Hl]; subst. destruct (p (m, y)); cbn [List.map fst]; [|auto].
  constructor; [|auto]. intros Hin. apply in_fst_filter in Hin. destruct Hin as [z [Hz _]].
  apply Hm. apply in_map_iff. exists (m, z). split; [reflexivity | exact Hz].
Qed.

Record FsOk (f : fs) : Prop := {
  fo_wf : fs_wf f;
  fo_plain : forall n i, lookup f n = Some i -> plainf (inode f i);
  fo_nodup : NoDup (dir_names f) }.

Lemma FsOk_empty : FsOk empty_fs.
Proof. split; [apply wf_empty | unfold lookup; cbn; intros; discriminate | constructor]. Qed.

Lemma plain_append f i b j : plainf (inode f j) -> plainf (inode (append_ino f i b) j).
Proof.
  intros H. destruct (Nat.ltb_spec i (length (inodes f))) as [Hi|Hi].
  - rewrite inode_append by assumption. destruct (Nat.eqb_spec j i) as [->|_]; [|exact H].
    unfold plainf, with_data; cbn [fgz fdir]. exact H.
  - unfold inode, append_ino; cbn [inodes]. rewrite nth_upd_out by assumption. exact H.
Qed.

Lemma FsOk_append f i b : FsOk f -> FsOk (append_ino f i b).
Proof.
  intros [W P N]. split.
  - apply wf_append; exact W.
  - intros n j. rewrite lookup_append. intros H. apply plain_append. eapply P; eassumption.
  - exact N.
Qed.

Lemma content_append_other f i b j : j <> i -> content (append_ino f i b) j = content f j.
Proof.
  intros Hj. destruct (Nat.ltb_spec i (length (inodes f))) as [Hi|Hi].
  - rewrite content_append by assumption. destruct (Nat.eqb_spec j i); [contradiction | reflexivity].
  - unfold content, inode, append_ino; cbn [inodes]. rewrite nth_upd_out by assumption. reflexivity.
Qed.
Lemma content_append_same f i b : i < length (inodes f) -> content (append_ino f i b) i = content f i ++ b.
Proof. intros Hi. rewrite content_append, Nat.eqb_refl by assumption. reflexivity. Qed.

Lemma fview_append_other f i b n : lookup f n <> Some i -> fview (append_ino f i b) n = fview f n.
Proof.
  intros H. unfold fview. rewrite lookup_append. destruct (lookup f n) as [j|]; [|reflexivity].
  rewrite content_append_other by congruence. reflexivity.
Qed.

(* a new file under a free name *)
Definition fresh_file (now : Z) : file := {| fdata := []; fgz := 0%N; fborn := now; fdir := false |}.

Lemma create_ok f a now : FsOk f -> lookup f a = None ->
  let f' := fst (create_file f a 0%N now) in
  let i := length (inodes f) in
  snd (create_file f a 0%N now) = i /\ FsOk f' /\ lookup f' a = Some i /\ content f' i = []
  /\ (forall n, n <> a -> lookup f' n = lookup f n)
  /\ (forall j, j < i -> inode f' j = inode f j)
  /\ length (inodes f') = S i.
Proof.
  intros [W P N] Ha. cbv zeta.
  pose proof (create_file_spec f a 0%N now) as S. pose proof (wf_create f a 0%N now W Ha) as W'.
  assert (Hn : names (fst (create_file f a 0%N now)) = (a, length (inodes f)) :: names f) by reflexivity.
  destruct (create_file f a 0%N now) as [f' i]. cbn [fst snd] in *. destruct S as [-> [Hino [La Lo]]].
  assert (Iold : forall j, j < length (inodes f) -> inode f' j = inode f j).
  { intros j Hj. unfold inode. rewrite Hino, inode_app_old by assumption. reflexivity. }
  assert (Inew : inode f' (length (inodes f)) = fresh_file now).
  { unfold inode. rewrite Hino, inode_app_new. reflexivity. }
  split; [reflexivity|]. split.
  { split.
    - exact W'.
    - intros n j Hj. destruct (beq_spec n a) as [->|Hna].
      + rewrite La in Hj. injection Hj as <-. rewrite Inew. split; reflexivity.
      + rewrite Lo in Hj by assumption. rewrite Iold by (eapply wf_bound; eassumption). eapply P; eassumption.
    - unfold dir_names. rewrite Hn. cbn [List.map fst]. constructor; [|exact N].
      apply lookup_none_notin. exact Ha. }
  split; [exact La|]. split; [unfold content; rewrite Inew; reflexivity|].
  split; [exact Lo|]. split; [exact Iold|]. rewrite Hino, app_length. cbn [length]. lia.
Qed.

(* opening (either mode) a name that does not exist creates the file *)
Lemma open_fresh f a app now : lookup f a = None ->
  (if app : bool then open_append f a now else open_trunc f a 0%N now) = create_file f a 0%N now.
Proof. intros H. destruct app; [apply open_append_fresh | apply open_trunc_fresh]; exact H. Qed.

Lemma rename_ok f a b i : FsOk f -> a <> b -> lookup f a = Some i ->
  exists f', rename f a b = Some f' /\ FsOk f' /\ inodes f' = inodes f
    /\ lookup f' b = Some i /\ lookup f' a = None /\ (forall n, n <> a -> n <> b -> lookup f' n = lookup f n).
Proof.
  intros [W P N] Hab Ha. destruct (rename_spec f a b i Hab Ha) as [f' [E [Hino [Lb [La Lo]]]]].
  exists f'. split; [exact E|]. split; [|auto].
  split.
  - eapply wf_rename; eassumption.
  - intros n j Hj. unfold inode. rewrite Hino. fold (inode f j).
    destruct (beq_spec n b) as [->|Hnb]; [rewrite Lb in Hj; injection Hj as <-; eapply P; eassumption|].
    destruct (beq_spec n a) as [->|Hna]; [rewrite La in Hj; discriminate|].
    rewrite Lo in Hj by assumption. eapply P; eassumption.
  - unfold rename in E. rewrite Ha in E. injection E as <-. unfold dir_names; cbn [names List.map fst].
    constructor; [|apply nodup_fst_filter; exact N].
    intros Hin. apply in_fst_filter in Hin. destruct Hin as [y [_ Hp]]. cbn [fst] in Hp.
    rewrite beq_refl in Hp. cbn in Hp. rewrite andb_false_r in Hp. discriminate.
Qed.

Lemma unlink_ok f a : FsOk f ->
  FsOk (unlink f a) /\ inodes (unlink f a) = inodes f /\ lookup (unlink f a) a = None
  /\ (forall n, n <> a -> lookup (unlink f a) n = lookup f n).
Proof.
  intros [W P N]. destruct (unlink_spec f a) as [Hino [La Lo]]. split; [|auto]. split.
  - apply wf_unlink; exact W.
  - intros n j Hj. unfold inode. rewrite Hino. fold (inode f j).
    destruct (beq_spec n a) as [->|Hna]; [rewrite La in Hj; discriminate|].
    rewrite Lo in Hj by assumption. eapply P; eassumption.
  - unfold dir_names, unlink; cbn [names]. apply nodup_fst_filter. exact N.
Qed.

(* ================================================================== association lists: the expected directory *)
Definition assoc (n : bytes) (l : list (bytes * bytes)) : option bytes :=
  match find (fun p => beq (fst p) n) l with Some p => Some (snd p) | None => None end.

Lemma assoc_nil n : assoc n [] = None.
Proof. reflexivity. Qed.
Lemma assoc_cons n m d l : assoc n ((m, d) :: l) = if beq m n then Some d else assoc n l.
Proof. unfold assoc; cbn [find fst snd]. destruct (beq m n); reflexivity. Qed.
Lemma assoc_app n l l' : assoc n (l ++ l') = match assoc n l with Some d => Some d | None => assoc n l' end.
Proof.
  induction l as [|[m d] l IH]; [reflexivity|]. cbn [app]. rewrite !assoc_cons.
  destruct (beq m n); [reflexivity | exact IH].
Qed.
Lemma assoc_snoc_other n m d l : n <> m -> assoc n (l ++ [(m, d)]) = assoc n l.
Proof.
  intros H. rewrite assoc_app, assoc_cons, beq_neq by congruence. cbn. destruct (assoc n l); reflexivity.
Qed.
Lemma assoc_snoc_same m d l : assoc m l = None -> assoc m (l ++ [(m, d)]) = Some d.
Proof. intros H. rewrite assoc_app, H, assoc_cons, beq_refl. reflexivity. Qed.
Lemma assoc_in n l : assoc n l <> None <-> In n (List.map fst l).
Proof.
  unfold assoc. rewrite <- find_name_in. destruct (find (fun p => beq (fst p) n) l); split; congruence.
Qed.
Lemma assoc_none_notin n l : assoc n l = None -> ~ In n (List.map fst l).
Proof. intros H Hin. apply assoc_in in Hin. contradiction. Qed.
Lemma notin_assoc_none n l : ~ In n (List.map fst l) -> assoc n l = None.
Proof. intros H. destruct (assoc n l) eqn:E; [|reflexivity]. exfalso. apply H, assoc_in. congruence. Qed.

Lemma nodup_snoc_gen {A} (l : list A) x : NoDup l -> ~ In x l -> NoDup (l ++ [x]).
Proof.
  induction l as [|y l IH]; cbn [app]; intros N H; [constructor; [tauto | constructor]|].
  inversion N as [|? ? Hy Hl]; subst. constructor.
  - intros Hin. apply in_app_or in Hin. destruct Hin as [Hin|[->|[]]]; [contradiction|]. apply H. left. reflexivity.
  - apply IH; [exact Hl|]. intros Hin. apply H. right. exact Hin.
Qed.
Lemma nodup_snoc (l : list (bytes * bytes)) m d :
  NoDup (List.map fst l) -> assoc m l = None -> NoDup (List.map fst (l ++ [(m, d)])).
Proof.
  intros N H. rewrite map_app. cbn [List.map fst].
  apply nodup_snoc_gen; [exact N | apply assoc_none_notin; exact H].
Qed.

Lemma fview_ext f f' n : lookup f' n = lookup f n ->
  (forall j, lookup f n = Some j -> content f' j = content f j) -> fview f' n = fview f n.
Proof. intros L C. unfold fview. rewrite L. destruct (lookup f n) as [j|]; [|reflexivity]. rewrite C; reflexivity. Qed.

(* a file is created under the free name a, then an old handle i flushes its pending bytes *)
Lemma create_then_flush f a now i pend : FsOk f -> lookup f a = None -> i < length (inodes f) ->
  let f3 := append_ino (fst (create_file f a 0%N now)) i pend in
  let new := length (inodes f) in
  snd (create_file f a 0%N now) = new /\ FsOk f3 /\ lookup f3 a = Some new /\ content f3 new = []
  /\ (forall n, n <> a -> lookup f3 n = lookup f n)
  /\ content f3 i = content f i ++ pend
  /\ (forall j, j < new -> j <> i -> content f3 j = content f j).
Proof.
  intros Ok Ha Hi. cbv zeta.
  destruct (create_ok f a now Ok Ha) as (Hs & Ok2 & La & Cn & Lo & Io & Hl). cbv zeta in *.
  set (f2 := fst (create_file f a 0%N now)) in *.
  split; [exact Hs|]. split; [apply FsOk_append; exact Ok2|].
  split; [rewrite lookup_append; exact La|].
  split; [rewrite content_append_other by lia; exact Cn|].
  split; [intros n Hn; rewrite lookup_append; apply Lo; exact Hn|].
  split.
  - rewrite content_append_same by lia. unfold content. rewrite Io by assumption. reflexivity.
  - intros j Hj Hne. rewrite content_append_other by assumption. unfold content. rewrite Io by assumption. reflexivity.
Qed.

(* ================================================================== the writer: invariants *)
Definition norot (c : config) : Prop :=
  c_rot c = None /\ c_async c = false /\ c_symlink c = false /\ fts (c_spec c) = false.
Definition logname (c : config) : bytes := the_name c.

Lemma logname_of c w : norot c -> name_of c w None = logname c.
Proof. intros (_ & _ & _ & H). apply name_plain; exact H. Qed.

(* closed: the files that exist besides the one that is being written, with their contents *)
Record WInit (c : config) (closed : list (bytes * bytes)) (w : world) : Prop := {
  wi_quiet : quiet w;
  wi_errs : werrs w = [];
  wi_ok : FsOk (wfs w);
  wi_view : forall n, fview (wfs w) n = assoc n closed;
  wi_free : assoc (logname c) closed = None }.

(* data: what has been handed to the open writer, whether it has reached the file already or is still buffered *)
Record WAct (c : config) (closed : list (bytes * bytes)) (data : bytes) (w : world) (wr : writer) : Prop := {
  wa_quiet : quiet w;
  wa_errs : werrs w = [];
  wa_ok : FsOk (wfs w);
  wa_wr : wr_ok wr;
  wa_cur : lookup (wfs w) (logname c) = Some (wino wr);
  wa_data : content (wfs w) (wino wr) ++ wpend wr = data;
  wa_view : forall n, n <> logname c -> fview (wfs w) n = assoc n closed;
  wa_free : assoc (logname c) closed = None }.

Lemma env_errs w w' : same_env w w' -> werrs w = [] -> werrs w' = [].
Proof. intros (_ & _ & _ & He & _) H. congruence. Qed.

Lemma winit_env c closed w w' : WInit c closed w -> wfs w' = wfs w -> same_env w w' -> WInit c closed w'.
Proof.
  intros [Q E Ok V Fr] F SE. split.
  - apply SE.
  - eapply env_errs; eassumption.
  - rewrite F; exact Ok.
  - rewrite F; exact V.
  - exact Fr.
Qed.

Lemma wact_append c closed data w wr w' wr' fl x :
  WAct c closed data w wr -> wfs w' = append_ino (wfs w) (wino wr) fl -> same_env w w' ->
  wino wr' = wino wr -> wr_ok wr' -> fl ++ wpend wr' = wpend wr ++ x ->
  WAct c closed (data ++ x) w' wr'.
Proof.
  intros [Q E Ok Hwr Cur D V Fr] F SE Ei Hok Ep.
  pose proof (wf_bound _ (fo_wf _ Ok) _ _ Cur) as Hi.
  split.
  - apply SE.
  - eapply env_errs; eassumption.
  - rewrite F. apply FsOk_append; exact Ok.
  - exact Hok.
  - rewrite F, lookup_append, Ei. exact Cur.
  - rewrite F, Ei, content_append_same by assumption. rewrite <- D, <- !app_assoc, Ep. reflexivity.
  - intros n Hn. rewrite F, fview_append_other; [apply V; exact Hn|].
    intros H. apply Hn. exact (wf_inj _ (fo_wf _ Ok) _ _ _ H Cur).
  - exact Fr.
Qed.

(* ---- write_buffer ---- *)
Lemma write_act c closed data w wr b : WAct c closed data w wr ->
  exists w' wr', write_buffer (mkflw c (Active None wr (logname c))) w b
                 = (Ok tt, w', mkflw c (Active None wr' (logname c)), false)
    /\ WAct c closed (data ++ b) w' wr'.
Proof.
  intros I. unfold write_buffer, mkflw; cbn [f_inner f_cfg mount_next].
  destruct (w_write_quiet w wr b (wa_quiet _ _ _ _ _ I) (wa_wr _ _ _ _ _ I))
    as (w2 & wr2 & fl & Ew & S2 & F2 & Ei & Ec & Ep & Hok).
  rewrite Ew. exists w2, wr2. split; [reflexivity|].
  eapply wact_append; eassumption.
Qed.

Lemma winit_lookup c closed w : WInit c closed w -> lookup (wfs w) (logname c) = None.
Proof.
  intros [_ _ _ V Fr]. specialize (V (logname c)). unfold fview in V. rewrite Fr in V.
  destruct (lookup (wfs w) (logname c)); [discriminate | reflexivity].
Qed.

Lemma write_init c closed w b : norot c -> WInit c closed w ->
  exists w' wr', write_buffer (mkflw c Initial) w b = (Ok tt, w', mkflw c (Active None wr' (logname c)), false)
    /\ WAct c closed b w' wr'.
Proof.
  intros Hc I. pose proof Hc as (Hrot & Hasync & Hsym & Hts).
  pose proof (winit_lookup _ _ _ I) as Ln. destruct I as [Q E Ok V Fr].
  assert (D : match file_of (wfs w) (logname c) with Some fl => fdir fl = false | None => True end)
    by (unfold file_of; rewrite Ln; exact Logic.I).
  destruct (p_open_quiet w (logname c) (c_append c) Q D) as (w1 & Eop & F1 & S1).
  rewrite (open_fresh _ _ _ _ Ln) in Eop, F1.
  destruct (create_ok (wfs w) (logname c) (wnow w) Ok Ln) as (Hs & Ok1 & La & Cn & Lo & Io & Hl). cbv zeta in *.
  set (wr0 := {| wino := snd (create_file (wfs w) (logname c) 0%N (wnow w)); wpend := []; wcap := c_cap c |}).
  assert (I0 : WAct c closed [] w1 wr0).
  { split.
    - apply S1.
    - eapply env_errs; eassumption.
    - rewrite F1; exact Ok1.
    - unfold wr_ok, wr0; cbn [wcap wpend length]. destruct (c_cap c); [lia | reflexivity].
    - rewrite F1. cbn [wr0 wino]. rewrite Hs. exact La.
    - rewrite F1. cbn [wr0 wino wpend]. rewrite Hs, Cn. reflexivity.
    - intros n Hn. rewrite F1, <- V. apply fview_ext; [apply Lo; exact Hn|].
      intros j Hj. unfold content. rewrite Io; [reflexivity|]. eapply wf_bound; [apply Ok | exact Hj].
    - exact Fr. }
  destruct (write_act c closed [] w1 wr0 b I0) as (w2 & wr2 & Ew & I2). cbn [app] in I2.
  exists w2, wr2. split; [|exact I2].
  unfold write_buffer, mkflw in *; cbn [f_inner f_cfg mount_next] in *.
  unfold initialize. rewrite Hrot. unfold open_log_file, do_symlink. rewrite Hsym, (logname_of c w Hc), Eop.
  cbn [bind fst snd mount_next]. fold wr0. exact Ew.
Qed.

(* ---- flush ---- *)
Lemma flush_act c closed data w wr : WAct c closed data w wr ->
  exists w' wr', flush_state (mkflw c (Active None wr (logname c))) w = (true, w', mkflw c (Active None wr' (logname c)))
    /\ WAct c closed data w' wr'.
Proof.
  intros I. unfold flush_state, mkflw; cbn [f_inner].
  destruct (w_flush_quiet w wr (wa_quiet _ _ _ _ _ I)) as (w1 & Efl & F1 & S1). rewrite Efl.
  eexists _, _. split; [reflexivity|].
  rewrite <- (app_nil_r data). eapply wact_append; try eassumption; try reflexivity.
  unfold wr_ok; cbn [wcap wpend length]. destruct (wcap wr); [lia | reflexivity].
Qed.

(* ---- reopen_outputfile on an open writer ---- *)
(* the situation before reopen: the name of the log file has been taken away from the writer's inode (f1 is the
   directory after that), and the rest of the directory is described by closed' *)
Lemma reopen_detached c closed' w1 wr data :
  quiet w1 -> werrs w1 = [] -> FsOk (wfs w1) -> lookup (wfs w1) (logname c) = None ->
  wino wr < length (inodes (wfs w1)) ->
  (forall n, lookup (wfs w1) n = Some (wino wr) -> content (wfs w1) (wino wr) ++ wpend wr = data) ->
  (forall n, n <> logname c -> lookup (wfs w1) n <> Some (wino wr) -> fview (wfs w1) n = assoc n closed') ->
  (forall n, lookup (wfs w1) n = Some (wino wr) -> assoc n closed' = Some data) ->
  assoc (logname c) closed' = None ->
  exists w' wr', reopen_state (mkflw c (Active None wr (logname c))) w1 = (Ok tt, w', mkflw c (Active None wr' (logname c)))
    /\ WAct c closed' [] w' wr'.
Proof.
  intros Q E Ok Ln Hi Hdata Hoth Hsame Fr.
  pose proof (reopen_state_quiet c false w1 None wr (logname c) Q) as Ere. fold (mkflw c (Active None wr (logname c))) in Ere.
  rewrite (open_append_fresh _ _ _ Ln) in Ere.
  set (w3 := flushed (set_fs w1 (fst (create_file (wfs w1) (logname c) 0%N (wnow w1)))) wr) in Ere.
  assert (F3 : wfs w3 = append_ino (fst (create_file (wfs w1) (logname c) 0%N (wnow w1))) (wino wr) (wpend wr)) by reflexivity.
  assert (S3 : same_env w1 w3) by (apply (same_env_trans _ (set_fs w1 (fst (create_file (wfs w1) (logname c) 0%N (wnow w1)))));
                                   [apply same_env_set_fs | apply flushed_env]; exact Q).
  clearbody w3.
  destruct (create_then_flush (wfs w1) (logname c) (wnow w1) (wino wr) (wpend wr) Ok Ln Hi)
    as (Hs & Ok3 & La & Cn & Lo & Ci & Co). cbv zeta in *. rewrite <- F3 in *.
  eexists w3, _. split; [exact Ere|].
  split.
  - apply S3.
  - eapply env_errs; eassumption.
  - exact Ok3.
  - reflexivity.
  - cbn [wino]. rewrite Hs. exact La.
  - cbn [wino wpend]. rewrite Hs, Cn. reflexivity.
  - intros n Hn. destruct (lookup (wfs w1) n) as [j|] eqn:Ej.
    + destruct (Nat.eq_dec j (wino wr)) as [->|Hj].
      * unfold fview. rewrite Lo, Ej, Ci, (Hdata n Ej) by assumption. symmetry. apply Hsame. exact Ej.
      * rewrite <- Hoth; [|exact Hn | rewrite Ej; congruence].
        apply fview_ext; [apply Lo; exact Hn|]. intros k Hk. rewrite Ej in Hk. injection Hk as <-.
        apply Co; [|exact Hj]. eapply wf_bound; [apply Ok | exact Ej].
    + rewrite <- Hoth; [|exact Hn | rewrite Ej; discriminate].
      apply fview_ext; [apply Lo; exact Hn|]. intros k Hk. rewrite Ej in Hk. discriminate.
  - exact Fr.
Qed.

(* ---- the writer is dropped (reset, or the end of the program) ---- *)
Lemma wact_dropped c closed data w wr w' :
  WAct c closed data w wr -> wfs w' = append_ino (wfs w) (wino wr) (wpend wr) -> same_env w w' ->
  quiet w' /\ werrs w' = [] /\ FsOk (wfs w') /\ forall n, fview (wfs w') n = assoc n (closed ++ [(logname c, data)]).
Proof.
  intros I F SE.
  assert (I' : WAct c closed (data ++ []) w' {| wino := wino wr; wpend := []; wcap := None |}).
  { eapply wact_append; try eassumption; try reflexivity. }
  rewrite app_nil_r in I'. destruct I' as [Q E Ok _ Cur D V Fr]. cbn [wino wpend] in *. rewrite app_nil_r in D.
  split; [exact Q|]. split; [exact E|]. split; [exact Ok|].
  intros n. destruct (beq_spec n (logname c)) as [->|Hn].
  - rewrite assoc_snoc_same by exact Fr. unfold fview. rewrite Cur, D. reflexivity.
  - rewrite assoc_snoc_other by exact Hn. apply V. exact Hn.
Qed.

(* ================================================================== steps of the system *)
Inductive St (c : config) (closed : list (bytes * bytes)) : option bytes -> sys -> Prop :=
| St_init w : WInit c closed w -> St c closed None (mksys (mkflw c Initial) w)
| St_act w wr data : WAct c closed data w wr ->
    St c closed (Some data) (mksys (mkflw c (Active None wr (logname c))) w).

Lemma step_sync c st w o : norot c -> step (mksys (mkflw c st) w) o = sync_step (mksys (mkflw c st) w) o.
Proof.
  intros (_ & Ha & _ & Ht).
  rewrite step_plain by (unfold mksys, mkflw; cbn [s_flw]; intros s' Es'; injection Es' as <-; exact Ht).
  unfold step_core, mksys, mkflw; cbn [s_flw]. unfold is_async; cbn [f_cfg]. rewrite Ha. reflexivity.
Qed.

Definition wf_op (o : op) : Prop := match o with OWrite _ | OPlain _ | OFlush => True | _ => False end.
Definition bytes_of (o : op) : bytes := match o with OWrite b | OPlain b => b | _ => [] end.
Definition written (ops : list op) : bytes := concat (List.map bytes_of ops).
Definition is_write (o : op) : bool := match o with OWrite _ | OPlain _ => true | _ => false end.
Definition has_write (ops : list op) : bool := existsb is_write ops.

(* the abstract effect of one operation: the bytes handed to the open writer; None = no file opened yet *)
Definition acur (cur : option bytes) (o : op) : option bytes :=
  if is_write o then Some (match cur with Some d => d ++ bytes_of o | None => bytes_of o end) else cur.

Lemma St_write c closed cur w st b :
  norot c -> St c closed cur (mksys (mkflw c st) w) ->
  exists w' st', write_buffer (mkflw c st) w b = (Ok tt, w', mkflw c st', false)
    /\ St c closed (Some (match cur with Some d => d ++ b | None => b end)) (mksys (mkflw c st') w').
Proof.
  intros Hc H. inversion H as [w0 I E1 E2 | w0 wr data I E1 E2]; subst.
  - destruct (write_init c closed w b Hc I) as (w' & wr' & Ew & I'). eexists _, _. split; [exact Ew|].
    constructor. exact I'.
  - destruct (write_act c closed data w wr b I) as (w' & wr' & Ew & I'). eexists _, _. split; [exact Ew|].
    constructor. exact I'.
Qed.

Lemma St_shape c closed cur x : St c closed cur x -> exists st w, x = mksys (mkflw c st) w.
Proof. intros H. destruct H; eexists _, _; reflexivity. Qed.

Lemma St_op c closed cur x o : norot c -> wf_op o -> St c closed cur x ->
  exists x', step x o = (x', ObsRes 0%N false) /\ St c closed (acur cur o) x'.
Proof.
  intros Hc Ho H. destruct (St_shape _ _ _ _ H) as (st & w & ->). rewrite step_sync by exact Hc.
  destruct o; try contradiction; unfold acur; cbn [is_write bytes_of].
  - (* OWrite *)
    destruct (St_write c closed cur w st b Hc H) as (w' & st' & Ew & H').
    unfold sync_step, mksys, mkflw in *; cbn [s_flw s_w s_tl s_dead f_poisoned app] in *. rewrite Ew.
    eexists. split; [reflexivity | exact H'].
  - (* OPlain *)
    destruct (St_write c closed cur w st b Hc H) as (w' & st' & Ew & H').
    unfold sync_step, mksys, mkflw in *; cbn [s_flw s_w s_tl s_dead f_poisoned app] in *. rewrite Ew.
    eexists. split; [reflexivity | exact H'].
  - (* OFlush *)
    inversion H as [w0 I E1 E2 | w0 wr data I E1 E2]; subst.
    + eexists. split; [reflexivity | exact H].
    + destruct (flush_act c closed data w wr I) as (w' & wr' & Ef & I').
      unfold sync_step, mksys, mkflw in *; cbn [s_flw s_w s_tl s_dead f_poisoned] in *. rewrite Ef.
      eexists. split; [reflexivity|]. apply (St_act c closed w' wr' data I').
Qed.

(* ---- switch 1: the log file is renamed away by somebody else, then reopen_outputfile() ---- *)
Lemma St_rename c closed cur x m : norot c -> m <> logname c -> assoc m closed = None -> St c closed cur x ->
  exists x' obs, run x [OExtRename (logname c) m; OReopen] = (x', obs)
    /\ St c (match cur with Some d => closed ++ [(m, d)] | None => closed end)
            (match cur with Some _ => Some [] | None => None end) x'.
Proof.
  intros Hc Hm Hfree H. cbn [run].
  inversion H as [w I E1 E2 | w wr data I E1 E2]; subst.
  - (* no file opened yet: nothing to rename, reopen does nothing *)
    rewrite step_sync by exact Hc. cbn [sync_step mksys s_w s_flw s_tl s_dead].
    rewrite (rename_none _ _ _ (winit_lookup _ _ _ I)).
    fold (mksys (mkflw c Initial) (set_fs w (wfs w))). rewrite step_sync by exact Hc.
    unfold sync_step, mksys, mkflw; cbn [s_flw s_w s_tl s_dead f_poisoned reopen_state f_inner code_of].
    eexists _, _. split; [reflexivity|].
    apply (St_init c closed (set_fs w (wfs w))).
    destruct (set_fs_env w (wfs w) (wi_quiet _ _ _ I)) as [F S]. eapply winit_env; eassumption.
  - rewrite step_sync by exact Hc. cbn [sync_step mksys s_w s_flw s_tl s_dead].
    pose proof I as [Q E Ok Hwr Cur D V Fr].
    destruct (rename_ok (wfs w) (logname c) m (wino wr) Ok (not_eq_sym Hm) Cur) as (f1 & Er & Ok1 & Hino & Lm & Ll & Lo).
    rewrite Er.
    fold (mksys (mkflw c (Active None wr (logname c))) (set_fs w f1)). rewrite step_sync by exact Hc.
    destruct (set_fs_env w f1 Q) as [F1 S1].
    pose proof (wf_bound _ (fo_wf _ Ok) _ _ Cur) as Hi.
    assert (Cont : forall j, content (wfs (set_fs w f1)) j = content (wfs w) j).
    { intros j. rewrite F1. unfold content, inode. rewrite Hino. reflexivity. }
    destruct (reopen_detached c (closed ++ [(m, data)]) (set_fs w f1) wr data) as (w' & wr' & Ere & I').
    + apply S1.
    + eapply env_errs; eassumption.
    + rewrite F1; exact Ok1.
    + rewrite F1; exact Ll.
    + rewrite F1, Hino; exact Hi.
    + intros n _. rewrite Cont. exact D.
    + intros n Hn Hne. rewrite F1 in Hne.
      destruct (beq_spec n m) as [->|Hnm]; [rewrite Lm in Hne; congruence|].
      rewrite assoc_snoc_other by exact Hnm. rewrite <- V by exact Hn.
      apply fview_ext; [rewrite F1; apply Lo; assumption|]. intros j _. apply Cont.
    + intros n Hn. rewrite F1 in Hn.
      destruct (beq_spec n m) as [->|Hnm]; [apply assoc_snoc_same; exact Hfree|].
      destruct (beq_spec n (logname c)) as [->|Hnl]; [rewrite Ll in Hn; discriminate|].
      rewrite Lo in Hn by assumption. exfalso. apply Hnl. exact (wf_inj _ (fo_wf _ Ok) _ _ _ Hn Cur).
    + rewrite assoc_snoc_other by (apply not_eq_sym; exact Hm). exact Fr.
    + unfold sync_step, mksys, mkflw in *; cbn [s_flw s_w s_tl s_dead f_poisoned] in *. rewrite Ere.
      eexists _, _. split; [reflexivity|]. apply (St_act c _ w' wr' [] I').
Qed.

(* ---- switch 1': the log file is removed by somebody else, then reopen_outputfile() ---- *)
Lemma St_remove c closed cur x : norot c -> St c closed cur x ->
  exists x' obs, run x [OExtRemove (logname c); OReopen] = (x', obs)
    /\ St c closed (match cur with Some _ => Some [] | None => None end) x'.
Proof.
  intros Hc H. cbn [run].
  inversion H as [w I E1 E2 | w wr data I E1 E2]; subst.
  - rewrite step_sync by exact Hc. cbn [sync_step mksys s_w s_flw s_tl s_dead].
    fold (mksys (mkflw c Initial) (set_fs w (unlink (wfs w) (logname c)))). rewrite step_sync by exact Hc.
    unfold sync_step, mksys, mkflw; cbn [s_flw s_w s_tl s_dead f_poisoned reopen_state f_inner code_of].
    eexists _, _. split; [reflexivity|].
    apply (St_init c closed (set_fs w (unlink (wfs w) (logname c)))).
    pose proof (winit_lookup _ _ _ I) as Ln. destruct I as [Q E Ok V Fr].
    destruct (set_fs_env w (unlink (wfs w) (logname c)) Q) as [F S].
    destruct (unlink_ok (wfs w) (logname c) Ok) as (Ok1 & Hino & Ll & Lo).
    split.
    + apply S.
    + eapply env_errs; eassumption.
    + rewrite F; exact Ok1.
    + intros n. rewrite F, <- V. apply fview_ext.
      * destruct (beq_spec n (logname c)) as [->|Hn]; [congruence | apply Lo; exact Hn].
      * intros j _. unfold content, inode. rewrite Hino. reflexivity.
    + exact Fr.
  - rewrite step_sync by exact Hc. cbn [sync_step mksys s_w s_flw s_tl s_dead].
    pose proof I as [Q E Ok Hwr Cur D V Fr].
    destruct (unlink_ok (wfs w) (logname c) Ok) as (Ok1 & Hino & Ll & Lo).
    set (f1 := unlink (wfs w) (logname c)) in *.
    fold (mksys (mkflw c (Active None wr (logname c))) (set_fs w f1)). rewrite step_sync by exact Hc.
    destruct (set_fs_env w f1 Q) as [F1 S1].
    pose proof (wf_bound _ (fo_wf _ Ok) _ _ Cur) as Hi.
    assert (Orph : forall n, lookup f1 n <> Some (wino wr)).
    { intros n Hn. destruct (beq_spec n (logname c)) as [->|Hnl]; [rewrite Ll in Hn; discriminate|].
      rewrite Lo in Hn by assumption. apply Hnl. exact (wf_inj _ (fo_wf _ Ok) _ _ _ Hn Cur). }
    destruct (reopen_detached c closed (set_fs w f1) wr data) as (w' & wr' & Ere & I').
    + apply S1.
    + eapply env_errs; eassumption.
    + rewrite F1; exact Ok1.
    + rewrite F1; exact Ll.
    + rewrite F1, Hino; exact Hi.
    + intros n Hn. rewrite F1 in Hn. exfalso. exact (Orph n Hn).
    + intros n Hn _. rewrite <- V by exact Hn.
      apply fview_ext; [rewrite F1; apply Lo; assumption|]. intros j _. rewrite F1. unfold content, inode. rewrite Hino. reflexivity.
    + intros n Hn. rewrite F1 in Hn. exfalso. exact (Orph n Hn).
    + exact Fr.
    + unfold sync_step, mksys, mkflw in *; cbn [s_flw s_w s_tl s_dead f_poisoned] in *. rewrite Ere.
      eexists _, _. split; [reflexivity|]. apply (St_act c _ w' wr' [] I').
Qed.

(* ---- switch 2: reset to a configuration with another file name ---- *)
(* assert_write_mode: reset is accepted only if the new configuration has the very same write mode *)
Lemma cap_eqb_neq a b : a <> b -> cap_eqb a b = false.
Proof.
  intros H. destruct a as [n|], b as [m|]; cbn [cap_eqb]; try reflexivity; [|contradiction].
  apply Nat.eqb_neq. intros ->. contradiction.
Qed.
Lemma St_reset c closed cur x c2 :
  norot c -> norot c2 -> c_cap c2 = c_cap c ->
  logname c2 <> logname c -> assoc (logname c2) closed = None -> St c closed cur x ->
  exists x', step x (OReset c2) = (x', ObsRes 0%N false)
    /\ St c2 (match cur with Some d => closed ++ [(logname c, d)] | None => closed end) None x'.
Proof.
  intros Hc Hc2 Hcap Hne Hfree H.
  assert (Hmode : c_async c2 = c_async c) by (destruct Hc as (_ & -> & _), Hc2 as (_ & -> & _); reflexivity).
  inversion H as [w I E1 E2 | w wr data I E1 E2]; subst; rewrite step_sync by exact Hc.
  - rewrite (reset_quiet (mksys (mkflw c Initial) w) (mkflw c Initial) c2 eq_refl eq_refl (wi_quiet _ _ _ I) Hcap Hmode).
    eexists. split; [reflexivity|]. apply (St_init c2 closed w).
    destruct I as [Q E Ok V Fr]. split; assumption.
  - pose proof (wa_quiet _ _ _ _ _ I) as Q.
    rewrite (reset_quiet (mksys (mkflw c (Active None wr (logname c))) w) (mkflw c (Active None wr (logname c))) c2 eq_refl eq_refl Q Hcap Hmode).
    eexists. split; [reflexivity|]. apply (St_init c2 _ (flushed w wr)).
    destruct (wact_dropped c closed data w wr _ I (flushed_fs w wr) (flushed_env w wr Q)) as (Q1 & E1 & Ok1 & V1).
    split; try assumption.
    rewrite assoc_snoc_other by exact Hne. exact Hfree.
Qed.

(* a reset to another write mode (here: another buffer capacity) is rejected: error result, nothing changes,
   whether the writer has opened its file already or not, and whatever the world looks like *)
Theorem reset_other_write_mode_rejected c c2 st w :
  norot c -> c_cap c2 <> c_cap c ->
  step (mksys (mkflw c st) w) (OReset c2) = (mksys (mkflw c st) w, ObsRes 1%N false).
Proof.
  intros Hc Hcap. rewrite step_sync by exact Hc.
  unfold sync_step, mksys, mkflw; cbn [s_flw s_w s_tl s_dead f_poisoned f_inner f_cfg].
  rewrite (cap_eqb_neq _ _ Hcap). reflexivity.
Qed.
Print Assumptions reset_other_write_mode_rejected.

(* ---- the end: the writer is dropped ---- *)
Record Final (files : list (bytes * bytes)) (w : world) : Prop := {
  fin_quiet : quiet w;
  fin_errs : werrs w = [];
  fin_ok : FsOk (wfs w);
  fin_view : forall n, fview (wfs w) n = assoc n files }.

Definition afinal (c : config) (closed : list (bytes * bytes)) (cur : option bytes) : list (bytes * bytes) :=
  closed ++ match cur with Some d => [(logname c, d)] | None => [] end.

Lemma St_stop c closed cur x : norot c -> St c closed cur x ->
  exists x', step x OStop = (x', ObsRes 0%N false) /\ s_flw x' = None /\ Final (afinal c closed cur) (s_w x').
Proof.
  intros Hc H.
  inversion H as [w I E1 E2 | w wr data I E1 E2]; subst; rewrite step_sync by exact Hc; unfold afinal.
  - eexists. split; [reflexivity|]. split; [reflexivity|]. cbn [s_w]. rewrite app_nil_r.
    destruct I as [Q E Ok V Fr]. split; assumption.
  - unfold sync_step, mksys; cbn [s_flw s_w s_tl s_dead]. change (f_poisoned (mkflw c (Active None wr (logname c)))) with false.
    cbv iota.
    unfold mkflw. rewrite (drop_state_quiet c false w None wr (logname c) (wa_quiet _ _ _ _ _ I)).
    eexists. split; [reflexivity|]. split; [reflexivity|]. cbn [s_w].
    destruct (wact_dropped c closed data w wr _ I (flushed_fs w wr) (flushed_env w wr (wa_quiet _ _ _ _ _ I))) as (Q1 & E1 & Ok1 & V1).
    split; assumption.
Qed.

Lemma St_free c closed cur x : St c closed cur x -> assoc (logname c) closed = None.
Proof. intros H. destruct H as [w I | w wr data I]; apply I. Qed.

(* ================================================================== histories with switches; the abstract machine *)
Inductive item :=
| IOp (o : op)                 (* a write, a raw write or a flush *)
| IRename (moved : bytes)      (* OExtRename (log name) moved; OReopen *)
| IRemove                      (* OExtRemove (log name); OReopen *)
| IReset (c2 : config).        (* OReset c2 *)

Definition flat1 (c : config) (it : item) : list op :=
  match it with
  | IOp o => [o]
  | IRename m => [OExtRename (logname c) m; OReopen]
  | IRemove => [OExtRemove (logname c); OReopen]
  | IReset c2 => [OReset c2]
  end.
Definition next_cfg (c : config) (it : item) : config := match it with IReset c2 => c2 | _ => c end.
Fixpoint flat (c : config) (items : list item) : list op :=
  match items with
  | [] => []
  | it :: r => flat1 c it ++ flat (next_cfg c it) r
  end.

(* abstract state: the configuration, the files that are closed (name, content) in the order in which they were
   closed, and the bytes handed to the open writer (None: no file opened yet) *)
Record astate := { a_cfg : config; a_closed : list (bytes * bytes); a_cur : option bytes }.

Definition astep (a : astate) (it : item) : astate :=
  match it with
  | IOp o => {| a_cfg := a_cfg a; a_closed := a_closed a; a_cur := acur (a_cur a) o |}
  | IRename m =>
    match a_cur a with
    | Some d => {| a_cfg := a_cfg a; a_closed := a_closed a ++ [(m, d)]; a_cur := Some [] |}
    | None => a       (* no file yet: nothing is renamed, reopen does nothing *)
    end
  | IRemove =>
    match a_cur a with
    | Some d => {| a_cfg := a_cfg a; a_closed := a_closed a; a_cur := Some [] |}     (* d is gone with the file *)
    | None => a
    end
  | IReset c2 =>
    {| a_cfg := c2;
       a_closed := match a_cur a with Some d => a_closed a ++ [(logname (a_cfg a), d)] | None => a_closed a end;
       a_cur := None |}
  end.
Definition arun (a : astate) (items : list item) : astate := fold_left astep items a.
Definition astart (c : config) : astate := {| a_cfg := c; a_closed := []; a_cur := None |}.
Definition afiles (a : astate) : list (bytes * bytes) := afinal (a_cfg a) (a_closed a) (a_cur a).

(* what a switch needs: the name that comes into use is not in use *)
Definition item_ok (a : astate) (it : item) : Prop :=
  match it with
  | IOp o => wf_op o
  | IRename m => m <> logname (a_cfg a) /\ assoc m (a_closed a) = None
  | IRemove => True
  | IReset c2 => norot c2 /\ c_cap c2 = c_cap (a_cfg a)          (* the same write mode, otherwise reset is rejected *)
                 /\ logname c2 <> logname (a_cfg a) /\ assoc (logname c2) (a_closed a) = None
  end.
Fixpoint items_ok (a : astate) (items : list item) : Prop :=
  match items with
  | [] => True
  | it :: r => item_ok a it /\ items_ok (astep a it) r
  end.

Lemma cfg_astep a it : a_cfg (astep a it) = next_cfg (a_cfg a) it.
Proof. destruct it; cbn [astep next_cfg a_cfg]; try reflexivity; destruct (a_cur a); reflexivity. Qed.

Definition StA (a : astate) (x : sys) : Prop :=
  norot (a_cfg a) /\ NoDup (List.map fst (a_closed a)) /\ St (a_cfg a) (a_closed a) (a_cur a) x.

Lemma engine_step a it x : StA a x -> item_ok a it ->
  exists x' obs, run x (flat1 (a_cfg a) it) = (x', obs) /\ StA (astep a it) x'.
Proof.
  intros (Hc & N & H) Hok. destruct a as [c closed cur]. cbn [a_cfg a_closed a_cur] in *.
  destruct it as [o | m | | c2]; cbn [flat1 item_ok astep a_cfg a_closed a_cur] in *.
  - destruct (St_op c closed cur x o Hc Hok H) as (x' & Es & H').
    exists x', [ObsRes 0%N false]. cbn [run]. rewrite Es. split; [reflexivity|]. split; [exact Hc|]. split; [exact N | exact H'].
  - destruct Hok as [Hm Hfree]. destruct (St_rename c closed cur x m Hc Hm Hfree H) as (x' & obs & Er & H').
    exists x', obs. split; [exact Er|].
    destruct cur as [d|]; cbn [a_cfg a_closed a_cur]; (split; [exact Hc|]); (split; [|exact H']); [|exact N].
    apply nodup_snoc; assumption.
  - destruct (St_remove c closed cur x Hc H) as (x' & obs & Er & H').
    exists x', obs. split; [exact Er|].
    destruct cur as [d|]; cbn [a_cfg a_closed a_cur]; (split; [exact Hc|]); (split; [exact N | exact H']).
  - destruct Hok as (Hc2 & Hcap & Hne & Hfree). destruct (St_reset c closed cur x c2 Hc Hc2 Hcap Hne Hfree H) as (x' & Es & H').
    exists x', [ObsRes 0%N false]. cbn [run]. rewrite Es. split; [reflexivity|].
    split; [exact Hc2|]. split; [|exact H'].
    destruct cur as [d|]; [|exact N]. apply nodup_snoc; [exact N|]. eapply St_free; eassumption.
Qed.

Lemma engine items : forall a x, StA a x -> items_ok a items ->
  exists x' obs, run x (flat (a_cfg a) items) = (x', obs) /\ StA (arun a items) x'.
Proof.
  induction items as [|it r IH]; intros a x H Hok.
  - exists x, []. split; [reflexivity | exact H].
  - destruct Hok as [Hit Hr]. destruct (engine_step a it x H Hit) as (x1 & o1 & E1 & H1).
    destruct (IH _ _ H1 Hr) as (x2 & o2 & E2 & H2). rewrite cfg_astep in E2.
    exists x2, (o1 ++ o2). cbn [flat]. rewrite run_app, E1, E2. split; [reflexivity | exact H2].
Qed.

(* ---- the directory at the end ---- *)
Definition dir_is (f : fs) (files : list (bytes * bytes)) : Prop :=
  (forall n, fview f n = assoc n files)                            (* under each name: exactly this content *)
  /\ Permutation (dir_names f) (List.map fst files)                (* the directory entries: exactly these names, once each *)
  /\ (forall n i, lookup f n = Some i -> plainf (inode f i)).      (* plain files *)

Lemma final_dir_is files w : Final files w -> NoDup (List.map fst files) -> dir_is (wfs w) files.
Proof.
  intros [Q E Ok V] N. split; [exact V|]. split; [|apply Ok].
  apply NoDup_Permutation; [apply Ok | exact N|].
  intros n. rewrite <- lookup_in, <- assoc_in, <- V. unfold fview.
  destruct (lookup (wfs w) n); split; congruence.
Qed.

Lemma afiles_nodup a x : StA a x -> NoDup (List.map fst (afiles a)).
Proof.
  intros (_ & N & H). unfold afiles, afinal. destruct (a_cur a) as [d|]; [|rewrite app_nil_r; exact N].
  apply nodup_snoc; [exact N|]. eapply St_free; eassumption.
Qed.

Lemma start_StA c t0 off : norot c -> StA (astart c) (mksys (mkflw c Initial) (world0 t0 off)).
Proof.
  intros Hc. split; [exact Hc|]. split; [constructor|]. apply (St_init c [] (world0 t0 off)).
  split; try reflexivity. - split; reflexivity. - apply FsOk_empty.
Qed.

(* THE GENERAL THEOREM: for every history of writes, flushes and switches from the empty directory, after the
   writer has been dropped the directory is exactly what the abstract machine computes; nothing was reported *)
Theorem switches_general c t0 off items :
  norot c -> items_ok (astart c) items ->
  let x := fst (run (sys0 t0 off) (OStart c :: flat c items ++ [OStop])) in
  dir_is (wfs (s_w x)) (afiles (arun (astart c) items))
  /\ NoDup (List.map fst (afiles (arun (astart c) items)))
  /\ werrs (s_w x) = [] /\ s_flw x = None.
Proof.
  intros Hc Hok. cbv zeta.
  destruct (engine items (astart c) _ (start_StA c t0 off Hc) Hok) as (x1 & o1 & E1 & H1). cbn [astart a_cfg] in E1.
  pose proof (afiles_nodup _ _ H1) as N.
  destruct H1 as (Hc1 & _ & H1).
  destruct (St_stop _ _ _ _ Hc1 H1) as (x2 & E2 & Hn & F).
  assert (R : run (sys0 t0 off) (OStart c :: flat c items ++ [OStop]) = (x2, ObsRes 0%N false :: o1 ++ [ObsRes 0%N false])).
  { change (run (sys0 t0 off) (OStart c :: flat c items ++ [OStop]))
      with (let '(x2, obs) := run (mksys (mkflw c Initial) (world0 t0 off)) (flat c items ++ [OStop]) in (x2, ObsRes 0%N false :: obs)).
    rewrite run_app, E1. cbn [run]. rewrite E2. reflexivity. }
  rewrite R. cbn [fst]. split; [apply final_dir_is; assumption|]. split; [exact N|]. split; [apply F | exact Hn].
Qed.
Print Assumptions switches_general.

(* ================================================================== facts about the abstract machine *)
Lemma arun_app a l l' : arun a (l ++ l') = arun (arun a l) l'.
Proof. apply fold_left_app. Qed.
Lemma items_ok_app l : forall a l', items_ok a (l ++ l') <-> items_ok a l /\ items_ok (arun a l) l'.
Proof.
  induction l as [|it r IH]; intros a l'; cbn [app items_ok arun fold_left]; [tauto|].
  fold (arun (astep a it) r). rewrite IH. tauto.
Qed.
Lemma flat_app l : forall c l', flat c (l ++ l') = flat c l ++ flat (a_cfg (arun {| a_cfg := c; a_closed := []; a_cur := None |} l)) l'.
Proof.
  assert (G : forall a l', flat (a_cfg a) (l ++ l') = flat (a_cfg a) l ++ flat (a_cfg (arun a l)) l').
  { induction l as [|it r IH]; intros a l'; cbn [app flat arun fold_left]; [reflexivity|].
    fold (arun (astep a it) r). rewrite <- cfg_astep, IH, app_assoc. reflexivity. }
  intros c l'. apply (G {| a_cfg := c; a_closed := []; a_cur := None |}).
Qed.

(* a block of plain operations *)
Definition cur_after (cur : option bytes) (ops : list op) : option bytes :=
  if has_write ops then Some (match cur with Some d => d | None => [] end ++ written ops) else cur.

Lemma written_cons o r : written (o :: r) = bytes_of o ++ written r.
Proof. reflexivity. Qed.
Lemma written_app a b : written (a ++ b) = written a ++ written b.
Proof. unfold written. rewrite map_app, concat_app. reflexivity. Qed.
Lemma written_nowrite ops : has_write ops = false -> written ops = [].
Proof.
  induction ops as [|o r IH]; [reflexivity|]. cbn [has_write existsb]. intros H. apply orb_false_iff in H. destruct H as [Ho Hr].
  rewrite written_cons, (IH Hr), app_nil_r. destruct o; try reflexivity; discriminate.
Qed.

Lemma arun_ops ops : forall a,
  arun a (List.map IOp ops) = {| a_cfg := a_cfg a; a_closed := a_closed a; a_cur := cur_after (a_cur a) ops |}.
Proof.
  induction ops as [|o r IH]; intros a; cbn [List.map arun fold_left].
  - destruct a; reflexivity.
  - fold (arun (astep a (IOp o)) (List.map IOp r)). rewrite IH. cbn [astep a_cfg a_closed a_cur]. f_equal.
    unfold cur_after, acur. cbn [has_write existsb]. rewrite written_cons.
    destruct (is_write o) eqn:Ew; cbn [orb].
    + fold (has_write r). destruct (has_write r) eqn:Er.
      * destruct (a_cur a); rewrite ?app_assoc; reflexivity.
      * rewrite (written_nowrite r Er), !app_nil_r. destruct (a_cur a); reflexivity.
    + fold (has_write r). assert (Eb : bytes_of o = []) by (destruct o; try reflexivity; discriminate). rewrite Eb. reflexivity.
Qed.
Lemma flat_ops c ops : flat c (List.map IOp ops) = ops.
Proof. induction ops as [|o r IH]; cbn [List.map flat flat1 next_cfg app]; [reflexivity | rewrite IH; reflexivity]. Qed.
Lemma items_ok_ops ops : forall a, Forall wf_op ops -> items_ok a (List.map IOp ops).
Proof.
  induction ops as [|o r IH]; intros a H; cbn [List.map items_ok]; [exact I|].
  inversion H; subst. split; [assumption | apply IH; assumption].
Qed.

(* without removals the files tile the stream *)
Definition no_remove (items : list item) : Prop := Forall (fun it => it <> IRemove) items.
Definition stream (files : list (bytes * bytes)) : bytes := concat (List.map snd files).

Lemma stream_app a b : stream (a ++ b) = stream a ++ stream b.
Proof. unfold stream. rewrite map_app, concat_app. reflexivity. Qed.

Lemma stream_step a it : it <> IRemove ->
  stream (afiles (astep a it)) = stream (afiles a) ++ written (flat1 (a_cfg a) it).
Proof.
  intros Hit. destruct a as [c closed cur]. unfold afiles, afinal.
  destruct it as [o | m | | c2]; cbn [astep a_cfg a_closed a_cur flat1]; [| | contradiction |].
  - unfold acur, written. cbn [List.map concat]. rewrite app_nil_r.
    destruct (is_write o) eqn:Ew.
    + destruct cur as [d|]; rewrite !stream_app; unfold stream; cbn [List.map snd concat]; rewrite ?app_nil_r, ?app_assoc; reflexivity.
    + assert (Eb : bytes_of o = []) by (destruct o; try reflexivity; discriminate). rewrite Eb, app_nil_r. reflexivity.
  - destruct cur as [d|]; cbn [a_cfg a_closed a_cur]; rewrite ?stream_app; unfold stream, written; cbn; rewrite ?app_nil_r; reflexivity.
  - destruct cur as [d|]; cbn [a_cfg a_closed a_cur]; rewrite ?stream_app; unfold stream, written; cbn; rewrite ?app_nil_r; reflexivity.
Qed.

Lemma stream_run items : forall a, no_remove items ->
  stream (afiles (arun a items)) = stream (afiles a) ++ written (flat (a_cfg a) items).
Proof.
  induction items as [|it r IH]; intros a H; cbn [arun fold_left flat].
  - unfold written; cbn. rewrite app_nil_r. reflexivity.
  - inversion H; subst. fold (arun (astep a it) r). rewrite IH, stream_step, written_app, cfg_astep, app_assoc by assumption.
    reflexivity.
Qed.

(* THEOREM 3: an arbitrary alternation of blocks of writes/flushes and switches (rename + reopen, reset): the
   directory consists of a list of files whose contents, concatenated in switch order, are the stream written *)
Theorem switches_tile c t0 off items :
  norot c -> items_ok (astart c) items -> no_remove items ->
  let x := fst (run (sys0 t0 off) (OStart c :: flat c items ++ [OStop])) in
  exists files, dir_is (wfs (s_w x)) files /\ NoDup (List.map fst files)
    /\ stream files = written (flat c items) /\ werrs (s_w x) = [].
Proof.
  intros Hc Hok Hnr. cbv zeta.
  destruct (switches_general c t0 off items Hc Hok) as (D & N & E & _). cbv zeta in *.
  exists (afiles (arun (astart c) items)). split; [exact D|]. split; [exact N|]. split; [|exact E].
  rewrite stream_run by assumption. reflexivity.
Qed.
Print Assumptions switches_tile.

(* a static sufficient condition for items_ok: the names that come into use (targets of renames, file names of the
   new configurations) are pairwise different and different from the first log file name *)
Fixpoint new_names (items : list item) : list bytes :=
  match items with
  | [] => []
  | IRename m :: r => m :: new_names r
  | IReset c2 :: r => logname c2 :: new_names r
  | _ :: r => new_names r
  end.
(* every reset keeps the buffer capacity of the configuration in force (and is synchronous, without rotation) *)
Fixpoint static_ok (c : config) (items : list item) : Prop :=
  match items with
  | [] => True
  | IOp o :: r => wf_op o /\ static_ok c r
  | IReset c2 :: r => (norot c2 /\ c_cap c2 = c_cap c) /\ static_ok c2 r
  | _ :: r => static_ok c r
  end.

Lemma static_items_ok items : forall a, static_ok (a_cfg a) items -> NoDup (new_names items) ->
  (forall n, In n (new_names items) -> n <> logname (a_cfg a) /\ assoc n (a_closed a) = None) ->
  items_ok a items.
Proof.
  induction items as [|it r IH]; intros a Hs N Hf; cbn [items_ok]; [exact I|].
  destruct it as [o | m | | c2]; cbn [new_names static_ok] in *.
  - destruct Hs as [Hit Hr]. split; [exact Hit|]. apply IH; [rewrite cfg_astep; exact Hr | assumption | assumption].
  - inversion N as [|? ? Hm Nr]; subst. destruct (Hf m (or_introl eq_refl)) as [Hm1 Hm2].
    split; [split; assumption|]. apply IH; [rewrite cfg_astep; exact Hs | assumption|].
    intros n Hn. destruct (Hf n (or_intror Hn)) as [Hn1 Hn2]. cbn [astep].
    destruct (a_cur a); cbn [a_cfg a_closed]; [|auto]. split; [exact Hn1|].
    rewrite assoc_snoc_other; [exact Hn2 | intros ->; contradiction].
  - split; [exact I|]. apply IH; [rewrite cfg_astep; exact Hs | assumption|].
    intros n Hn. destruct (Hf n Hn) as [Hn1 Hn2]. cbn [astep]. destruct (a_cur a); cbn [a_cfg a_closed]; auto.
  - destruct Hs as [[Hit Hcap] Hr].
    inversion N as [|? ? Hm Nr]; subst. destruct (Hf _ (or_introl eq_refl)) as [Hm1 Hm2].
    split; [split; [exact Hit | split; [exact Hcap | split; assumption]]|]. apply IH; [exact Hr | assumption|].
    intros n Hn. destruct (Hf n (or_intror Hn)) as [Hn1 Hn2]. cbn [astep a_cfg a_closed].
    split; [intros ->; contradiction|].
    destruct (a_cur a); [|exact Hn2]. rewrite assoc_snoc_other; [exact Hn2 | exact Hn1].
Qed.

Theorem switches_tile_static c t0 off items :
  norot c -> static_ok c items -> NoDup (logname c :: new_names items) -> no_remove items ->
  let x := fst (run (sys0 t0 off) (OStart c :: flat c items ++ [OStop])) in
  exists files, dir_is (wfs (s_w x)) files /\ NoDup (List.map fst files)
    /\ stream files = written (flat c items) /\ werrs (s_w x) = [].
Proof.
  intros Hc Hs N Hnr. apply switches_tile; [exact Hc | | exact Hnr].
  inversion N as [|? ? Hl Nr]; subst. apply static_items_ok; [exact Hs | exact Nr|].
  intros n Hn. cbn [astart a_cfg a_closed]. split; [intros ->; contradiction | reflexivity].
Qed.
Print Assumptions switches_tile_static.

(* ================================================================== one switch: THEOREMS 1 and 2 *)
Lemma flat_block c ops it r :
  flat c (List.map IOp ops ++ it :: r) = ops ++ flat1 c it ++ flat (next_cfg c it) r.
Proof. rewrite flat_app, arun_ops, flat_ops. reflexivity. Qed.

Lemma one_switch c t0 off ops1 it ops2 :
  norot c -> Forall wf_op ops1 -> Forall wf_op ops2 ->
  item_ok {| a_cfg := c; a_closed := []; a_cur := cur_after None ops1 |} it ->
  let x := fst (run (sys0 t0 off) (OStart c :: ops1 ++ flat1 c it ++ ops2 ++ [OStop])) in
  let a1 := astep {| a_cfg := c; a_closed := []; a_cur := cur_after None ops1 |} it in
  dir_is (wfs (s_w x)) (afiles {| a_cfg := a_cfg a1; a_closed := a_closed a1; a_cur := cur_after (a_cur a1) ops2 |})
  /\ werrs (s_w x) = [].
Proof.
  intros Hc H1 H2 Hit. cbv zeta.
  set (items := List.map IOp ops1 ++ it :: List.map IOp ops2).
  assert (Ef : flat c items ++ [OStop] = ops1 ++ flat1 c it ++ ops2 ++ [OStop]).
  { unfold items. rewrite flat_block, flat_ops, <- !app_assoc. reflexivity. }
  assert (Ea : arun (astart c) items
               = let a1 := astep {| a_cfg := c; a_closed := []; a_cur := cur_after None ops1 |} it in
                 {| a_cfg := a_cfg a1; a_closed := a_closed a1; a_cur := cur_after (a_cur a1) ops2 |}).
  { unfold items. rewrite arun_app, arun_ops. cbn [arun fold_left astart a_cfg a_closed a_cur].
    fold (arun (astep {| a_cfg := c; a_closed := []; a_cur := cur_after None ops1 |} it) (List.map IOp ops2)).
    rewrite arun_ops. reflexivity. }
  assert (Hok : items_ok (astart c) items).
  { unfold items. apply items_ok_app. split; [apply items_ok_ops; exact H1|].
    rewrite arun_ops. cbn [astart a_cfg a_closed a_cur items_ok]. split; [exact Hit|]. apply items_ok_ops; exact H2. }
  destruct (switches_general c t0 off items Hc Hok) as (D & _ & E & _). cbv zeta in *.
  rewrite Ef, Ea in *. split; assumption.
Qed.

(* THEOREM 1.  Records are logged (ops1), somebody renames the log file to moved, reopen_outputfile() is called,
   more records are logged (ops2), the writer is dropped.  Then moved holds exactly the records of ops1 - including
   those that were still in the buffer of the writer when the file was reopened -, the file under the original name
   holds exactly the records of ops2, and there is nothing else.
   When ops1 contains no write at all, no file has been opened at the time of the switch: the rename finds nothing,
   reopen_outputfile() does nothing, and the log file is created by the first write of ops2 (if there is one). *)
Theorem reopen_switches c t0 off ops1 ops2 moved :
  norot c -> Forall wf_op ops1 -> Forall wf_op ops2 -> moved <> logname c ->
  let x := fst (run (sys0 t0 off)
                    (OStart c :: ops1 ++ [OExtRename (logname c) moved; OReopen] ++ ops2 ++ [OStop])) in
  dir_is (wfs (s_w x))
         (if has_write ops1 then [(moved, written ops1); (logname c, written ops2)]
          else if has_write ops2 then [(logname c, written ops2)] else [])
  /\ werrs (s_w x) = [].
Proof.
  intros Hc H1 H2 Hm.
  pose proof (one_switch c t0 off ops1 (IRename moved) ops2 Hc H1 H2 (conj Hm eq_refl)) as T.
  cbv zeta in *. cbn [flat1] in T. unfold cur_after in T.
  destruct (has_write ops1) eqn:E1; cbn [astep a_cfg a_closed a_cur app] in T.
  - destruct (has_write ops2) eqn:E2; unfold afiles, afinal in T; cbn [a_cfg a_closed a_cur app] in T; [exact T|].
    rewrite (written_nowrite ops2 E2). exact T.
  - destruct (has_write ops2) eqn:E2; unfold afiles, afinal in T; cbn [a_cfg a_closed a_cur app] in T; exact T.
Qed.
Print Assumptions reopen_switches.

(* the same in terms of what is found under each name *)
Corollary reopen_switches_views c t0 off ops1 ops2 moved :
  norot c -> Forall wf_op ops1 -> Forall wf_op ops2 -> moved <> logname c -> has_write ops1 = true ->
  let f := wfs (s_w (fst (run (sys0 t0 off)
                    (OStart c :: ops1 ++ [OExtRename (logname c) moved; OReopen] ++ ops2 ++ [OStop])))) in
  fview f moved = Some (written ops1) /\ fview f (logname c) = Some (written ops2)
  /\ (forall n, n <> moved -> n <> logname c -> fview f n = None)
  /\ Permutation (dir_names f) [moved; logname c].
Proof.
  intros Hc H1 H2 Hm Hw. destruct (reopen_switches c t0 off ops1 ops2 moved Hc H1 H2 Hm) as [(V & P & _) _].
  cbv zeta in *. rewrite Hw in *. cbn [List.map fst] in P.
  split; [rewrite V, assoc_cons, beq_refl; reflexivity|].
  split; [rewrite V, !assoc_cons, (beq_neq moved (logname c)), beq_refl by exact Hm; reflexivity|].
  split; [|exact P].
  intros n Hn1 Hn2. rewrite V, !assoc_cons, !beq_neq by congruence. reflexivity.
Qed.

(* THEOREM 1'.  The log file is removed instead: the records of ops1 are gone with it (also those that were still
   buffered: they are flushed into the removed file); the new file holds exactly the records of ops2 *)
Theorem reopen_after_remove c t0 off ops1 ops2 :
  norot c -> Forall wf_op ops1 -> Forall wf_op ops2 ->
  let x := fst (run (sys0 t0 off)
                    (OStart c :: ops1 ++ [OExtRemove (logname c); OReopen] ++ ops2 ++ [OStop])) in
  dir_is (wfs (s_w x))
         (if has_write ops1 || has_write ops2 then [(logname c, written ops2)] else [])
  /\ werrs (s_w x) = [].
Proof.
  intros Hc H1 H2.
  pose proof (one_switch c t0 off ops1 IRemove ops2 Hc H1 H2 I) as T.
  cbv zeta in *. cbn [flat1] in T. unfold cur_after in T.
  destruct (has_write ops1) eqn:E1; cbn [astep a_cfg a_closed a_cur app orb] in T |- *.
  - destruct (has_write ops2) eqn:E2; unfold afiles, afinal in T; cbn [a_cfg a_closed a_cur app] in T; [exact T|].
    rewrite (written_nowrite ops2 E2). exact T.
  - destruct (has_write ops2) eqn:E2; unfold afiles, afinal in T; cbn [a_cfg a_closed a_cur app] in T; exact T.
Qed.
Print Assumptions reopen_after_remove.

(* THEOREM 2.  reset to a configuration with another file name: the old file holds exactly the records logged
   before the reset (the old writer is dropped, which flushes its buffer), the new file exactly those logged after
   it.  A file exists only if a record was written to it: the new writer opens its file at the first write.
   (reset is accepted only for the same write mode - assert_write_mode -: both configurations are synchronous by
   norot, and the buffer capacity has to be the same; see reset_other_write_mode_rejected for the other case.) *)
Theorem reset_switches c c2 t0 off ops1 ops2 :
  norot c -> norot c2 -> c_cap c2 = c_cap c -> logname c2 <> logname c -> Forall wf_op ops1 -> Forall wf_op ops2 ->
  let x := fst (run (sys0 t0 off) (OStart c :: ops1 ++ [OReset c2] ++ ops2 ++ [OStop])) in
  dir_is (wfs (s_w x))
         ((if has_write ops1 then [(logname c, written ops1)] else [])
          ++ (if has_write ops2 then [(logname c2, written ops2)] else []))
  /\ werrs (s_w x) = [].
Proof.
  intros Hc Hc2 Hcap Hne H1 H2.
  pose proof (one_switch c t0 off ops1 (IReset c2) ops2 Hc H1 H2 (conj Hc2 (conj Hcap (conj Hne eq_refl)))) as T.
  cbv zeta in *. cbn [flat1] in T. unfold cur_after in T.
  destruct (has_write ops1) eqn:E1; destruct (has_write ops2) eqn:E2;
    cbn [astep a_cfg a_closed a_cur app] in T; unfold afiles, afinal in T; cbn [a_cfg a_closed a_cur app] in T;
    rewrite ?app_nil_r in T; exact T.
Qed.
Print Assumptions reset_switches.

Corollary reset_switches_views c c2 t0 off ops1 ops2 :
  norot c -> norot c2 -> c_cap c2 = c_cap c -> logname c2 <> logname c -> Forall wf_op ops1 -> Forall wf_op ops2 ->
  has_write ops1 = true -> has_write ops2 = true ->
  let f := wfs (s_w (fst (run (sys0 t0 off) (OStart c :: ops1 ++ [OReset c2] ++ ops2 ++ [OStop])))) in
  fview f (logname c) = Some (written ops1) /\ fview f (logname c2) = Some (written ops2)
  /\ (forall n, n <> logname c -> n <> logname c2 -> fview f n = None)
  /\ Permutation (dir_names f) [logname c; logname c2].
Proof.
  intros Hc Hc2 Hcap Hne H1 H2 Hw1 Hw2.
  destruct (reset_switches c c2 t0 off ops1 ops2 Hc Hc2 Hcap Hne H1 H2) as [(V & P & _) _].
  cbv zeta in *. rewrite Hw1, Hw2 in *. cbn [List.map fst app] in *.
  split; [rewrite V, assoc_cons, beq_refl; reflexivity|].
  split; [rewrite V, !assoc_cons, (beq_neq (logname c) (logname c2)), beq_refl by congruence; reflexivity|].
  split; [|exact P].
  intros n Hn1 Hn2. rewrite V, !assoc_cons, !beq_neq by congruence. reflexivity.
Qed.

(* a rejected reset in a history: it is as if it had not been there, all records go on to the old file *)
Lemma run_skip_rejected_reset c c2 t0 off ops1 rest :
  norot c -> c_cap c2 <> c_cap c -> Forall wf_op ops1 ->
  fst (run (sys0 t0 off) (OStart c :: ops1 ++ [OReset c2] ++ rest)) = fst (run (sys0 t0 off) (OStart c :: ops1 ++ rest)).
Proof.
  intros Hc Hcap H1.
  destruct (engine (List.map IOp ops1) (astart c) _ (start_StA c t0 off Hc) (items_ok_ops ops1 _ H1)) as (x1 & o1 & E1 & H).
  cbn [astart a_cfg] in E1. rewrite flat_ops in E1. rewrite arun_ops in H.
  destruct H as (_ & _ & H). cbn [astart a_cfg a_closed a_cur] in H. destruct (St_shape _ _ _ _ H) as (st & w & ->).
  assert (R : forall l, fst (run (sys0 t0 off) (OStart c :: ops1 ++ l)) = fst (run (mksys (mkflw c st) w) l)).
  { intros l.
    change (run (sys0 t0 off) (OStart c :: ops1 ++ l))
      with (let '(x2, obs) := run (mksys (mkflw c Initial) (world0 t0 off)) (ops1 ++ l) in (x2, ObsRes 0%N false :: obs)).
    rewrite run_app, E1. destruct (run (mksys (mkflw c st) w) l). reflexivity. }
  rewrite !R. cbn [app run]. rewrite (reset_other_write_mode_rejected c c2 st w Hc Hcap).
  destruct (run (mksys (mkflw c st) w) rest). reflexivity.
Qed.

Theorem reset_rejected_keeps_file c c2 t0 off ops1 ops2 :
  norot c -> c_cap c2 <> c_cap c -> Forall wf_op ops1 -> Forall wf_op ops2 ->
  let x := fst (run (sys0 t0 off) (OStart c :: ops1 ++ [OReset c2] ++ ops2 ++ [OStop])) in
  dir_is (wfs (s_w x)) (if has_write (ops1 ++ ops2) then [(logname c, written (ops1 ++ ops2))] else [])
  /\ werrs (s_w x) = [].
Proof.
  intros Hc Hcap H1 H2. cbv zeta. rewrite run_skip_rejected_reset by assumption.
  assert (H12 : Forall wf_op (ops1 ++ ops2)) by (apply Forall_app; split; assumption).
  destruct (switches_general c t0 off (List.map IOp (ops1 ++ ops2)) Hc (items_ok_ops _ _ H12)) as (D & _ & E & _).
  cbv zeta in *. rewrite flat_ops, arun_ops, <- app_assoc in *. split; [|exact E].
  unfold afiles, afinal, cur_after in D. cbn [astart a_cfg a_closed a_cur app] in D.
  destruct (has_write (ops1 ++ ops2)); exact D.
Qed.
Print Assumptions reset_rejected_keeps_file.

(* ================================================================== the statements on concrete histories *)
Definition sw_cfg (base : N) (cap : option nat) : config :=
  {| c_spec := {| fbase := [base]; fdisc := None; fts := false; fsfx := Some [108%N; 111%N; 103%N] |};
     c_append := false; c_cap := cap; c_rot := None; c_utc := false; c_symlink := false; c_bg := false;
     c_async := false; c_start := None |}.
(* the directory: (name, content) in name order *)
Definition dir_list (x : sys) : list (bytes * bytes) :=
  List.map (fun n => (n, content_of (wfs (s_w x)) n)) (sort_names (dir_names (wfs (s_w x)))).
Definition end_of (ops : list op) : sys := fst (run (sys0 0%Z 0%Z) ops).

Definition ex_c := sw_cfg 97%N (Some 8).                    (* a.log, BufWriter with capacity 8 *)
Definition ex_c2 := sw_cfg 98%N (Some 8).                   (* b.log, the same write mode *)
Definition ex_c3 := sw_cfg 98%N None.                       (* b.log, unbuffered: another write mode *)
Definition a_log : bytes := [97; 46; 108; 111; 103]%N.
Definition a_old : bytes := [97; 46; 111; 108; 100]%N.
Definition b_log : bytes := [98; 46; 108; 111; 103]%N.
Definition b_old : bytes := [98; 46; 111; 108; 100]%N.
Definition ex_ops1 : list op := [OWrite [1; 2]%N; OPlain [3]%N; OWrite [4; 5]%N].      (* 5 bytes: all still buffered *)
Definition ex_ops2 : list op := [OWrite [6; 7]%N; OFlush; OWrite [8]%N].

Example ex_names : logname ex_c = a_log /\ logname ex_c2 = b_log.
Proof. split; vm_compute; reflexivity. Qed.

Example ex_hyps : norot ex_c /\ norot ex_c2 /\ Forall wf_op ex_ops1 /\ Forall wf_op ex_ops2
                  /\ a_old <> logname ex_c /\ logname ex_c2 <> logname ex_c
                  /\ has_write ex_ops1 = true /\ has_write ex_ops2 = true
                  /\ c_cap ex_c2 = c_cap ex_c /\ c_cap ex_c3 <> c_cap ex_c.
Proof.
  split; [repeat split|]. split; [repeat split|].
  split; [repeat constructor|]. split; [repeat constructor|].
  split; [intros H; vm_compute in H; discriminate|]. split; [intros H; vm_compute in H; discriminate|].
  split; [reflexivity|]. split; [reflexivity|]. split; [reflexivity | discriminate].
Qed.

(* Theorem 1 on a history: at the time of the rename nothing has reached the file, the five bytes are in the
   buffer; they end up in the renamed file, the records after the reopen in the new a.log *)
Example ex_reopen :
  dir_list (end_of (OStart ex_c :: ex_ops1 ++ [OExtRename a_log a_old])) = [(a_old, [])]
  /\ dir_list (end_of (OStart ex_c :: ex_ops1 ++ [OExtRename a_log a_old; OReopen] ++ ex_ops2 ++ [OStop]))
     = [(a_log, [6; 7; 8]%N); (a_old, [1; 2; 3; 4; 5]%N)]
  /\ written ex_ops1 = [1; 2; 3; 4; 5]%N /\ written ex_ops2 = [6; 7; 8]%N.
Proof. repeat split; vm_compute; reflexivity. Qed.

(* ... and what the theorem says about it *)
Example ex_reopen_thm :
  dir_is (wfs (s_w (end_of (OStart ex_c :: ex_ops1 ++ [OExtRename (logname ex_c) a_old; OReopen] ++ ex_ops2 ++ [OStop]))))
         [(a_old, written ex_ops1); (logname ex_c, written ex_ops2)].
Proof.
  destruct ex_hyps as (Hc & Hc2 & H1 & H2 & Hm & Hne & _).
  exact (proj1 (reopen_switches ex_c 0%Z 0%Z ex_ops1 ex_ops2 a_old Hc H1 H2 Hm)).
Qed.

(* no write before the switch: the rename finds nothing, reopen does nothing *)
Example ex_reopen_early :
  dir_list (end_of (OStart ex_c :: [OFlush] ++ [OExtRename a_log a_old; OReopen] ++ ex_ops2 ++ [OStop]))
  = [(a_log, [6; 7; 8]%N)]
  /\ dir_list (end_of (OStart ex_c :: [OFlush] ++ [OExtRename a_log a_old; OReopen] ++ [OFlush] ++ [OStop])) = [].
Proof. split; vm_compute; reflexivity. Qed.

(* the log file is removed instead: the five buffered bytes are flushed into the removed file *)
Example ex_remove :
  dir_list (end_of (OStart ex_c :: ex_ops1 ++ [OExtRemove a_log; OReopen] ++ ex_ops2 ++ [OStop]))
  = [(a_log, [6; 7; 8]%N)].
Proof. vm_compute; reflexivity. Qed.

(* Theorem 2 on a history: reset from a.log to b.log (both with a buffer of 8 bytes) *)
Example ex_reset :
  dir_list (end_of (OStart ex_c :: ex_ops1)) = [(a_log, [])]
  /\ dir_list (end_of (OStart ex_c :: ex_ops1 ++ [OReset ex_c2] ++ ex_ops2 ++ [OStop]))
     = [(a_log, [1; 2; 3; 4; 5]%N); (b_log, [6; 7; 8]%N)].
Proof. split; vm_compute; reflexivity. Qed.
Example ex_reset_thm :
  dir_is (wfs (s_w (end_of (OStart ex_c :: ex_ops1 ++ [OReset ex_c2] ++ ex_ops2 ++ [OStop]))))
         [(logname ex_c, written ex_ops1); (logname ex_c2, written ex_ops2)].
Proof.
  destruct ex_hyps as (Hc & Hc2 & H1 & H2 & Hm & Hne & _ & _ & Hcap & _).
  exact (proj1 (reset_switches ex_c ex_c2 0%Z 0%Z ex_ops1 ex_ops2 Hc Hc2 Hcap Hne H1 H2)).
Qed.

(* a reset to another write mode: rejected with an error result, the records after it go to a.log as well *)
Example ex_reset_rejected :
  snd (run (sys0 0%Z 0%Z) (OStart ex_c :: ex_ops1 ++ [OReset ex_c3]))
  = [ObsRes 0 false; ObsRes 0 false; ObsRes 0 false; ObsRes 0 false; ObsRes 1 false]
  /\ end_of (OStart ex_c :: ex_ops1 ++ [OReset ex_c3]) = end_of (OStart ex_c :: ex_ops1)
  /\ dir_list (end_of (OStart ex_c :: ex_ops1 ++ [OReset ex_c3] ++ ex_ops2 ++ [OStop]))
     = [(a_log, [1; 2; 3; 4; 5; 6; 7; 8]%N)]
  /\ dir_list (end_of (OStart ex_c :: [OReset ex_c3] ++ ex_ops2 ++ [OStop])) = [(a_log, [6; 7; 8]%N)].
Proof. repeat split; vm_compute; reflexivity. Qed.

(* Theorem 3 on a history with three switches *)
Definition ex_items : list item :=
  List.map IOp ex_ops1 ++ [IRename a_old] ++ List.map IOp ex_ops2 ++ [IReset ex_c2]
  ++ [IOp (OWrite [9; 10]%N); IRename b_old; IOp (OPlain [11]%N)].
Example ex_tile_hyps : static_ok ex_c ex_items /\ NoDup (logname ex_c :: new_names ex_items) /\ no_remove ex_items.
Proof.
  split; [repeat constructor|]. split.
  - vm_compute. repeat constructor; cbn [In]; intros H; repeat (destruct H as [H|H]; [discriminate|]); exact H.
  - repeat constructor; discriminate.
Qed.
Example ex_tile :
  flat ex_c ex_items
  = ex_ops1 ++ [OExtRename a_log a_old; OReopen] ++ ex_ops2 ++ [OReset ex_c2]
    ++ [OWrite [9; 10]%N; OExtRename b_log b_old; OReopen; OPlain [11]%N]
  /\ dir_list (end_of (OStart ex_c :: flat ex_c ex_items ++ [OStop]))
     = [(a_log, [6; 7; 8]%N); (a_old, [1; 2; 3; 4; 5]%N); (b_log, [11]%N); (b_old, [9; 10]%N)]
  /\ afiles (arun (astart ex_c) ex_items)                              (* the same files in switch order *)
     = [(a_old, [1; 2; 3; 4; 5]%N); (a_log, [6; 7; 8]%N); (b_old, [9; 10]%N); (b_log, [11]%N)]
  /\ written (flat ex_c ex_items) = [1; 2; 3; 4; 5; 6; 7; 8; 9; 10; 11]%N.
Proof. repeat split; vm_compute; reflexivity. Qed.

(* ================================================================== the buffered records are in the renamed file at once *)
(* right after reopen_outputfile() has returned (nothing flushed or dropped by the caller yet) the renamed file
   already holds every record of ops1 on disk: the old writer is dropped inside reopen_outputfile(), and its Drop
   flushes the buffer into the inode it has open, which is the renamed file *)
Theorem reopen_flushes_at_once c t0 off ops1 moved :
  norot c -> Forall wf_op ops1 -> moved <> logname c -> has_write ops1 = true ->
  let f := wfs (s_w (fst (run (sys0 t0 off) (OStart c :: ops1 ++ [OExtRename (logname c) moved; OReopen])))) in
  fview f moved = Some (written ops1) /\ fview f (logname c) = Some []
  /\ (forall n, n <> moved -> n <> logname c -> fview f n = None).
Proof.
  intros Hc H1 Hm Hw. cbv zeta.
  set (items := List.map IOp ops1 ++ [IRename moved]).
  assert (Ef : flat c items = ops1 ++ [OExtRename (logname c) moved; OReopen]).
  { unfold items. rewrite flat_block. reflexivity. }
  assert (Ea : arun (astart c) items = {| a_cfg := c; a_closed := [(moved, written ops1)]; a_cur := Some [] |}).
  { unfold items. rewrite arun_app, arun_ops. unfold cur_after. rewrite Hw. reflexivity. }
  assert (Hok : items_ok (astart c) items).
  { unfold items. apply items_ok_app. split; [apply items_ok_ops; exact H1|].
    rewrite arun_ops. cbn [astart a_cfg a_closed a_cur items_ok item_ok]. repeat split. exact Hm. }
  destruct (engine items (astart c) _ (start_StA c t0 off Hc) Hok) as (x1 & o1 & E1 & H). cbn [astart a_cfg] in E1.
  rewrite Ea in H. destruct H as (_ & _ & H). cbn [a_cfg a_closed a_cur] in H.
  assert (R : run (sys0 t0 off) (OStart c :: ops1 ++ [OExtRename (logname c) moved; OReopen]) = (x1, ObsRes 0%N false :: o1)).
  { change (run (sys0 t0 off) (OStart c :: ops1 ++ [OExtRename (logname c) moved; OReopen]))
      with (let '(x2, obs) := run (mksys (mkflw c Initial) (world0 t0 off)) (ops1 ++ [OExtRename (logname c) moved; OReopen]) in
            (x2, ObsRes 0%N false :: obs)).
    rewrite <- Ef, E1. reflexivity. }
  rewrite R. cbn [fst].
  inversion H as [|w wr data I E2 E3]; subst. cbn [mksys s_w].
  destruct I as [Q E Ok Hwr Cur D V Fr]. cbn [app] in *.
  split; [rewrite V by exact Hm; rewrite assoc_cons, beq_refl; reflexivity|].
  split.
  - unfold fview. rewrite Cur. f_equal.
    destruct (content (wfs w) (wino wr)); [reflexivity | discriminate].
  - intros n Hn1 Hn2. rewrite V by exact Hn2. rewrite assoc_cons, beq_neq by congruence. reflexivity.
Qed.
Print Assumptions reopen_flushes_at_once.
