(* TimestampsDirect naming: the stream theorem (C01), the partition theorem and the rotation flags (C08) for whole runs
   from an empty directory, and the reader corollary (the reader order of Oracles/ReaderOrder.v applied to the snapshot
   of the directory gives the files in the order in which they were written), hence the directory determines the contents
   of tsd_view (tsd_view_unique); examples (tsd_cfg, tsd_c, tsd_c3, used by later files). *)
Require Import FL.Base.Bytes FL.Base.BytesFacts FL.Base.PathName FL.Fs.Fs FL.Fs.FsFacts FL.Time.Civil FL.Time.TsFormat
  FL.Names.FileSpec FL.Names.NamesFacts FL.Names.SortFacts FL.Names.FamilyFacts FL.Flw.Model FL.Flw.ModelFacts FL.Flw.NumFs
  FL.Flw.NumInv FL.Flw.Run FL.Flw.NumRun FL.Oracles.O_Flw FL.Oracles.ReaderOrder FL.Flw.NumTheorems FL.Flw.NumListing FL.Flw.NumRestart
  FL.Flw.NumDTheorems
  FL.Flw.TsCal FL.Flw.TsTime FL.Flw.TsMono FL.Flw.TsNames FL.Flw.TsInv FL.Flw.TsRun FL.Flw.TsTheorems FL.Flw.TsReader
  FL.Flw.TsdInv FL.Flw.TsdRun.
From Coq Require Import Sorted.
Open Scope nat_scope.

(* ------------------------------------------------------------------ the reader's view *)
(* no files: the directory is empty *)
Lemma tsd_view_nil c e f keys : tsd_view c e f keys [] <-> (keys = [] /\ names f = []).
Proof.
  split.
  - intros [Hl [_ [H _]]]. split; [destruct keys; [reflexivity | discriminate Hl]|].
    destruct (names f) as [|[n j] r] eqn:E; [reflexivity|].
    assert (L : lookup f n = Some j) by (unfold lookup; rewrite E; cbn; rewrite beq_refl; reflexivity).
    destruct (H n j L) as [i [Hi _]]. cbn in Hi. lia.
  - intros [-> H]. split; [reflexivity|]. split; [intros i Hi; cbn in Hi; lia|]. split.
    + intros n j L. rewrite lookup_empty in L by assumption. discriminate.
    + unfold dir_names. rewrite H. constructor.
Qed.

Lemma start_rel_tsd c crit t0 off : RelTd c crit (ts_e c off) t0 0 (fst (step (sys0 t0 off) (OStart c))) None.
Proof. cbn. repeat split. cbn. lia. Qed.

(* the view of a whole run, with everything the theorems below need *)
Lemma run_view_tsd c crit t0 off ops :
  tsdcfg c crit -> tag_ok c -> Forall basic_op ops -> Forall tick_ok ops ->
  (0 <= t0 + ts_e c off)%Z -> (t0 + elapsed ops + ts_e c off < sec_max)%Z -> (N.of_nat (length ops) <= usize_max)%N ->
  exists x0 ob0, step (sys0 t0 off) (OStart c) = (x0, ob0) /\
    let a := a_run None ops (snd (run x0 ops)) in
    let f := wfs (s_w (fst (run (sys0 t0 off) (OStart c :: ops ++ [OStop])))) in
    (exists keys, tsd_view c (ts_e c off) f keys (files_of a) /\ keys_ok keys
                  /\ (forall k, In k keys -> (t0 <= fst k <= t0 + elapsed ops)%Z))
    /\ flat a = written ops
    /\ (forall m, crit = CSize m ->
          a = s_run m None ops
          /\ (forall i o, nth_error ops i = Some o -> forall b, (o = OWrite b \/ o = OPlain b) ->
                nth_error (snd (run x0 ops)) i = Some (ObsRes 0 (m <? N.of_nat (length (cur_of (s_run m None (firstn i ops)))))%N))).
Proof.
  intros Hcfg T Hb Htk Hlo Hhi Hmax. cbn [run]. destruct (step (sys0 t0 off) (OStart c)) as [x0 ob0] eqn:E0.
  exists x0, ob0. split; [reflexivity|].
  pose proof (start_rel_tsd c crit t0 off) as R0. rewrite E0 in R0. cbn [fst] in R0.
  assert (W0 : wnow (s_w x0) = t0) by (cbn in E0; injection E0 as <- _; reflexivity).
  assert (Y : years_ok (ts_e c off) t0 (t0 + elapsed ops)) by (split; assumption).
  rewrite run_app.
  pose proof (run_rel_tsd c crit _ _ _ Hcfg T Y ops x0 None 0 R0 Hb Htk ltac:(lia) ltac:(cbn [Nat.add]; exact Hmax)) as [R1 [W1 Z1]].
  pose proof (run_length ops x0) as L.
  destruct (run x0 ops) as [x1 obs1]. cbn [fst snd] in *.
  pose proof (stop_rel_tsd c crit _ _ _ x1 _ Hcfg R1) as S. cbn [run]. destruct (step x1 OStop) as [x2 ob2]. cbn [fst].
  pose proof (a_run_flat ops None obs1 Hb L) as F. cbn [flat app] in F.
  split; [|split; [exact F | exact Z1]].
  destruct (a_run None ops obs1) as [[cl cu]|]; cbn [files_of].
  - destruct S as [keys [V [K Rg]]]. exists keys. split; [exact V|]. split; [exact K|].
    intros k Ik. specialize (Rg k Ik). lia.
  - exists []. split; [apply tsd_view_nil; auto|]. split; [constructor | intros k []].
Qed.

(* ------------------------------------------------------------------ the theorems *)
(* C01 for TimestampsDirect naming: any criterion, buffer capacity, append flag, use_utc.
   After the writer is stopped the directory consists exactly of the plain files named by the keys - nothing else, no
   name twice -, their contents, in the order of the keys, are exactly the bytes written; the keys are those of keys_ok:
   seconds non-decreasing, within one second <ts>, <ts>.restart-0000, <ts>.restart-0001, ... (keys_ok_order, ts_names_distinct).
   In contrast to Timestamps naming the second of a key is the one in which the file was STARTED; the last key is the one
   of the file that was written last. *)
Theorem timestampsdirect_stream c crit t0 off ops :
  tsdcfg c crit -> tag_ok c -> Forall basic_op ops -> Forall tick_ok ops ->
  (0 <= t0 + ts_e c off)%Z -> (t0 + elapsed ops + ts_e c off < sec_max)%Z -> (N.of_nat (length ops) <= usize_max)%N ->
  let f := wfs (s_w (fst (run (sys0 t0 off) (OStart c :: ops ++ [OStop])))) in
  (names f = [] /\ written ops = [])
  \/ exists keys files,
       files <> []
       /\ tsd_view c (ts_e c off) f keys files
       /\ concat files = written ops
       /\ keys_ok keys
       /\ (forall k, In k keys -> (t0 <= fst k <= t0 + elapsed ops)%Z).
Proof.
  intros Hcfg T Hb Htk Hlo Hhi Hmax.
  destruct (run_view_tsd c crit t0 off ops Hcfg T Hb Htk Hlo Hhi Hmax) as [x0 [ob0 [E0 [[keys [V [K Rg]]] [F _]]]]].
  cbv zeta. destruct (a_run None ops (snd (run x0 ops))) as [[cl cu]|]; cbn [files_of flat] in *.
  - right. exists keys, (cl ++ [cu]). split; [destruct cl; discriminate|]. split; [exact V|].
    split; [rewrite concat_app; cbn [concat]; rewrite app_nil_r; exact F|]. split; [exact K | exact Rg].
  - left. apply tsd_view_nil in V. split; [apply V | symmetry; exact F].
Qed.
Print Assumptions timestampsdirect_stream.

(* the same in one piece: an empty list of files stands for the empty directory (tsd_view_nil) *)
Theorem timestampsdirect_stream_view c crit t0 off ops :
  tsdcfg c crit -> tag_ok c -> Forall basic_op ops -> Forall tick_ok ops ->
  (0 <= t0 + ts_e c off)%Z -> (t0 + elapsed ops + ts_e c off < sec_max)%Z -> (N.of_nat (length ops) <= usize_max)%N ->
  exists keys files,
    tsd_view c (ts_e c off) (wfs (s_w (fst (run (sys0 t0 off) (OStart c :: ops ++ [OStop]))))) keys files
    /\ concat files = written ops /\ keys_ok keys
    /\ (forall k, In k keys -> (t0 <= fst k <= t0 + elapsed ops)%Z).
Proof.
  intros Hcfg T Hb Htk Hlo Hhi Hmax.
  destruct (run_view_tsd c crit t0 off ops Hcfg T Hb Htk Hlo Hhi Hmax) as [x0 [ob0 [E0 [[keys [V [K Rg]]] [F _]]]]].
  cbv zeta in *. exists keys, (files_of (a_run None ops (snd (run x0 ops)))). split; [exact V|]. split; [|split; assumption].
  rewrite <- F. destruct (a_run None ops (snd (run x0 ops))) as [[cl cu]|]; cbn [files_of flat concat]; [|reflexivity].
  rewrite concat_app. cbn [concat]. rewrite app_nil_r. reflexivity.
Qed.

(* what the view says about the names: the names of the files are pairwise different, and the order of the keys is the
   strict order of (second, position) with the positions 0, 1, 2, .. within each second *)
Corollary tsd_view_names c e lo hi f keys files :
  tsd_view c e f keys files -> keys_ok keys -> years_ok e lo hi -> (forall k, In k keys -> (lo <= fst k <= hi)%Z) ->
  (forall i j, i < length files -> j < length files -> kname c e (nth i keys kd) = kname c e (nth j keys kd) -> i = j)
  /\ (forall i j, i < j < length files ->
        let a := nth i keys kd in let b := nth j keys kd in (fst a < fst b)%Z \/ (fst a = fst b /\ snd a < snd b))
  /\ (forall i, i < length files -> snd (nth i keys kd) = count (fst (nth i keys kd)) (firstn i keys)).
Proof.
  intros [Hl _] K Y Rg. rewrite <- Hl.
  split; [exact (proj1 (ts_names_distinct c e lo hi keys K Y Rg)) | exact (keys_ok_order keys K)].
Qed.

(* C08 for TimestampsDirect naming with a size criterion: the contents of the files, in the order of the keys, are the
   greedy partition of the records - the very same lists as for Numbers and NumbersDirect naming: a trigger before the
   first record does nothing (no file has been opened yet), the first file starts empty, every rotation starts an
   empty file *)
Theorem timestampsdirect_partition c m t0 off ops :
  tsdcfg c (CSize m) -> tag_ok c -> Forall basic_op ops -> Forall tick_ok ops ->
  (0 <= t0 + ts_e c off)%Z -> (t0 + elapsed ops + ts_e c off < sec_max)%Z -> (N.of_nat (length ops) <= usize_max)%N ->
  exists keys,
    tsd_view c (ts_e c off) (wfs (s_w (fst (run (sys0 t0 off) (OStart c :: ops ++ [OStop]))))) keys
             (expected_files m None (items false ops))
    /\ keys_ok keys /\ (forall k, In k keys -> (t0 <= fst k <= t0 + elapsed ops)%Z).
Proof.
  intros Hcfg T Hb Htk Hlo Hhi Hmax.
  destruct (run_view_tsd c (CSize m) t0 off ops Hcfg T Hb Htk Hlo Hhi Hmax) as [x0 [ob0 [E0 [[keys [V [K Rg]]] [_ Z]]]]].
  cbv zeta in *. destruct (Z m eq_refl) as [Hs _]. rewrite Hs, s_run_none in V by assumption. exists keys. auto.
Qed.
Print Assumptions timestampsdirect_partition.

(* each write reports a rotation exactly when the current file (disk + buffer) already exceeds the limit *)
Theorem timestampsdirect_rotates_iff c m t0 off ops i o b :
  tsdcfg c (CSize m) -> tag_ok c -> Forall basic_op ops -> Forall tick_ok ops ->
  (0 <= t0 + ts_e c off)%Z -> (t0 + elapsed ops + ts_e c off < sec_max)%Z -> (N.of_nat (length ops) <= usize_max)%N ->
  nth_error ops i = Some o -> (o = OWrite b \/ o = OPlain b) ->
  nth_error (snd (run (sys0 t0 off) (OStart c :: ops))) (S i)
  = Some (ObsRes 0 (m <? N.of_nat (length (cur_of (s_run m None (firstn i ops)))))%N).
Proof.
  intros Hcfg T Hb Htk Hlo Hhi Hmax Hi Ho.
  destruct (run_view_tsd c (CSize m) t0 off ops Hcfg T Hb Htk Hlo Hhi Hmax) as [x0 [ob0 [E0 [_ [_ Z]]]]].
  destruct (Z m eq_refl) as [_ Hr]. cbn [run]. rewrite E0. destruct (run x0 ops) as [x1 obs1]. cbn [snd nth_error] in *.
  exact (Hr i o Hi b Ho).
Qed.
Print Assumptions timestampsdirect_rotates_iff.

Corollary timestampsdirect_rotates_last c m t0 off ops i o b :
  tsdcfg c (CSize m) -> tag_ok c -> Forall basic_op ops -> Forall tick_ok ops ->
  (0 <= t0 + ts_e c off)%Z -> (t0 + elapsed ops + ts_e c off < sec_max)%Z -> (N.of_nat (length ops) <= usize_max)%N ->
  nth_error ops i = Some o -> (o = OWrite b \/ o = OPlain b) ->
  nth_error (snd (run (sys0 t0 off) (OStart c :: ops))) (S i)
  = Some (ObsRes 0 (m <? N.of_nat (length (last (expected_files m None (items false (firstn i ops))) [])))%N).
Proof.
  intros Hcfg T Hb Htk Hlo Hhi Hmax Hi Ho. rewrite (timestampsdirect_rotates_iff c m t0 off ops i o b Hcfg T Hb Htk Hlo Hhi Hmax Hi Ho).
  rewrite s_run_cur_last by (apply firstn_Forall; exact Hb). reflexivity.
Qed.

(* nothing is in the directory exactly when no record was written *)
Theorem timestampsdirect_empty_iff c crit t0 off ops :
  tsdcfg c crit -> tag_ok c -> Forall basic_op ops -> Forall tick_ok ops ->
  (0 <= t0 + ts_e c off)%Z -> (t0 + elapsed ops + ts_e c off < sec_max)%Z -> (N.of_nat (length ops) <= usize_max)%N ->
  (names (wfs (s_w (fst (run (sys0 t0 off) (OStart c :: ops ++ [OStop]))))) = [] <-> has_write ops = false).
Proof.
  intros Hcfg T Hb Htk Hlo Hhi Hmax.
  destruct (run_view_tsd c crit t0 off ops Hcfg T Hb Htk Hlo Hhi Hmax) as [x0 [ob0 [E0 [[keys [V _]] _]]]]. cbv zeta in V.
  rewrite <- (a_run_none_iff ops (snd (run x0 ops)) (run_length ops x0) Hb).
  destruct (a_run None ops (snd (run x0 ops))) as [[cl cu]|]; cbn [files_of] in V.
  - split; [|discriminate]. intros Hn. exfalso. destruct V as [Hl [Hcl _]].
    destruct (Hcl (length cl)) as [j [L _]]; [rewrite app_length; cbn [length]; lia|].
    rewrite lookup_empty in L by assumption. discriminate.
  - split; [reflexivity|]. intros _. apply tsd_view_nil in V. apply V.
Qed.

(* without clock ticks every file carries the second of the start: the i-th file is <t0> for i = 0 and
   <t0>.restart-(i-1) otherwise *)
Corollary timestampsdirect_stream_no_tick c crit t0 off ops :
  tsdcfg c crit -> tag_ok c -> Forall basic_op ops -> Forall (fun o => forall dt, o <> OTick dt) ops ->
  (0 <= t0 + ts_e c off < sec_max)%Z -> (N.of_nat (length ops) <= usize_max)%N ->
  exists keys files,
    tsd_view c (ts_e c off) (wfs (s_w (fst (run (sys0 t0 off) (OStart c :: ops ++ [OStop]))))) keys files
    /\ concat files = written ops
    /\ forall i, i < length keys -> nth i keys kd = (t0, i).
Proof.
  intros Hcfg T Hb Hnt Hr Hmax.
  assert (Htk : Forall tick_ok ops /\ elapsed ops = 0%Z).
  { clear -Hnt. induction Hnt as [|o r Ho _ [IH1 IH2]]; [split; [constructor | reflexivity]|].
    destruct o; try (split; [constructor; [exact Logic.I | exact IH1] | cbn [elapsed dt_of]; lia]).
    exfalso. exact (Ho dt eq_refl). }
  destruct Htk as [Htk El].
  destruct (timestampsdirect_stream_view c crit t0 off ops Hcfg T Hb Htk ltac:(lia) ltac:(lia) Hmax) as [keys [files [V [F [K Rg]]]]].
  exists keys, files. split; [exact V|]. split; [exact F|]. apply keys_one_second; [exact K|]. intros k Ik. specialize (Rg k Ik). lia.
Qed.
Print Assumptions timestampsdirect_empty_iff.
Print Assumptions timestampsdirect_stream_no_tick.

(* ------------------------------------------------------------------ the reader *)
(* There is no current infix (cur_infix_of c = None): every file is a rotated one for the reader, which sorts by time
   stamp and then by restart counter.  This is the order of the keys, i.e. the order in which the files were written. *)
Lemma key_of_infix_none e k : in_years e (fst k) -> key_of None (infix_of e k) = rk e k.
Proof. intros H. apply key_of_rotated; [exact H | discriminate]. Qed.

Section ReaderD.
Variables (c : config) (crit : criterion) (e lo hi : Z) (f : fs) (keys : list key) (files : list bytes).
Hypothesis Hcfg : tsdcfg c crit.
Hypothesis G : not_gz c.
Hypothesis Y : years_ok e lo hi.
Hypothesis Rg : forall k, In k keys -> (lo <= fst k <= hi)%Z.
Hypothesis K : keys_ok keys.
Hypothesis V : tsd_view c e f keys files.

Let Hlen : length keys = length files. Proof. apply V. Qed.
Let Yk : forall k, In k keys -> in_years e (fst k).
Proof. intros k Ik. apply (years_in e lo hi _ Y). apply Rg, Ik. Qed.
Let Yi : forall i, i < length files -> in_years e (fst (nth i keys kd)).
Proof. intros i Hi. apply Yk, nth_In. rewrite Hlen. exact Hi. Qed.

Let sp := c_spec c.
Let fixed := fixed0 c.
Let L := target c e [] keys files.

Lemma plain_entry_d n j d : lookup f n = Some j -> plain (inode f j) -> content f j = d -> snap_entry f n = (n, 0%N, d).
Proof. exact (plain_entry f n j d). Qed.

(* what the snapshot says about a name of the directory *)
Lemma entry_of_name_d n : In n (dir_names f) ->
  exists i, i < length files /\ n = kname c e (nth i keys kd) /\ snap_entry f n = (n, 0%N, nth i files [])
            /\ full_infix sp fixed n = Some (infix_of e (nth i keys kd)).
Proof.
  intros I. apply dir_names_lookup in I. destruct I as [j Lj].
  destruct V as [_ [Hcl [Hon _]]].
  destruct (Hon n j Lj) as [i [Hi ->]].
  exists i. split; [exact Hi|]. split; [reflexivity|]. destruct (Hcl i Hi) as [j' [Lj' [Pj Cj]]].
  split; [exact (plain_entry_d _ _ _ Lj' Pj Cj) | apply full_infix_kname; [exact G | apply Yi; exact Hi]].
Qed.

Theorem tsd_reader_order : family_in_order c (snap_list f) = files.
Proof.
  unfold family_in_order.
  assert (Ec : cur_infix_of c = None) by (unfold cur_infix_of; rewrite (proj1 Hcfg); reflexivity).
  rewrite Ec. change (fixed_name_part (c_spec c) []) with fixed. fold sp.
  rewrite (reader_order_target sp fixed None f L); [exact (eq_trans (target_contents c e [] keys files Hlen) (app_nil_r files)) | | | apply V | |].
  - apply target_sorted; [constructor | intros k a [] | exact Hlen | exact (keys_sorted keys K) | exact Yk].
  - intros a b Ia Ib E.
    apply (target_in c e [] keys files a Hlen) in Ia. apply (target_in c e [] keys files b Hlen) in Ib.
    destruct Ia as [[]|[i [Hi ->]]], Ib as [[]|[j [Hj ->]]]; unfold ename in E; cbn [fst snd] in E |- *.
    apply kname_inj in E; [|apply Yi; assumption|apply Yi; assumption]. rewrite E. reflexivity.
  - intros n In_. destruct (entry_of_name_d n In_) as [i [Hi [-> [Es Ef]]]]. eexists _, _.
    split; [exact Ef|]. split; [exact Es|]. apply (target_in c e [] keys files _ Hlen).
    right. exists i. split; [exact Hi|]. rewrite key_of_infix_none by (apply Yi; exact Hi). reflexivity.
  - intros a Ia. apply dir_names_lookup. apply (target_in c e [] keys files a Hlen) in Ia.
    destruct V as [_ [Hcl _]].
    destruct Ia as [[]|[i [Hi ->]]]. unfold ename. cbn [fst snd]. destruct (Hcl i Hi) as [j [Lj _]]. eauto.
Qed.
End ReaderD.

Print Assumptions tsd_reader_order.

(* the C01 oracle on the snapshot of a run: the reader finds the files in the order in which they were written,
   and their concatenation is the stream *)
Theorem timestampsdirect_reader c crit t0 off ops :
  tsdcfg c crit -> tag_ok c -> not_gz c -> Forall basic_op ops -> Forall tick_ok ops ->
  (0 <= t0 + ts_e c off)%Z -> (t0 + elapsed ops + ts_e c off < sec_max)%Z -> (N.of_nat (length ops) <= usize_max)%N ->
  let x := fst (run (sys0 t0 off) (OStart c :: ops ++ [OStop])) in
  concat (family_in_order c (snap_of x)) = written ops
  /\ exists keys files, tsd_view c (ts_e c off) (wfs (s_w x)) keys files /\ keys_ok keys
                        /\ (forall k, In k keys -> (t0 <= fst k <= t0 + elapsed ops)%Z)
                        /\ family_in_order c (snap_of x) = files.
Proof.
  intros Hcfg T G Hb Htk Hlo Hhi Hmax x.
  destruct (timestampsdirect_stream_view c crit t0 off ops Hcfg T Hb Htk Hlo Hhi Hmax) as [keys [files [V [F [K Rg]]]]]. fold x in V.
  assert (Y : years_ok (ts_e c off) t0 (t0 + elapsed ops)) by (split; assumption).
  pose proof (tsd_reader_order c crit _ _ _ _ keys files Hcfg G Y Rg K V) as E. rewrite <- snap_of_list in E.
  split; [rewrite E; exact F|]. exists keys, files. auto.
Qed.
Print Assumptions timestampsdirect_reader.

Corollary timestampsdirect_oracle_C01 c crit t0 off ops :
  tsdcfg c crit -> tag_ok c -> not_gz c -> Forall basic_op ops -> Forall tick_ok ops ->
  (0 <= t0 + ts_e c off)%Z -> (t0 + elapsed ops + ts_e c off < sec_max)%Z -> (N.of_nat (length ops) <= usize_max)%N ->
  oracle_C01 None (items false ops) (family_in_order c (snap_of (fst (run (sys0 t0 off) (OStart c :: ops ++ [OStop]))))) = true.
Proof.
  intros Hcfg T G Hb Htk Hlo Hhi Hmax. unfold oracle_C01.
  rewrite (proj1 (timestampsdirect_reader c crit t0 off ops Hcfg T G Hb Htk Hlo Hhi Hmax)). cbn [app].
  rewrite items_written by exact Hb. apply beq_refl.
Qed.

(* with a size criterion the reader finds the greedy partition: the C08 oracle *)
Lemma list_beq_refl l : list_beq l l = true.
Proof. induction l as [|x l IH]; [reflexivity|]. cbn [list_beq]. rewrite beq_refl, IH. reflexivity. Qed.

(* the view determines the contents (whatever the keys) *)
Lemma tsd_view_unique c crit e lo hi f keys1 keys2 files1 files2 :
  tsdcfg c crit -> not_gz c ->
  years_ok e lo hi -> (forall k, In k keys1 -> (lo <= fst k <= hi)%Z) -> (forall k, In k keys2 -> (lo <= fst k <= hi)%Z) ->
  keys_ok keys1 -> keys_ok keys2 ->
  tsd_view c e f keys1 files1 -> tsd_view c e f keys2 files2 -> files1 = files2.
Proof.
  intros Hcfg G Y R1 R2 K1 K2 V1 V2.
  rewrite <- (tsd_reader_order c crit e lo hi f keys1 files1 Hcfg G Y R1 K1 V1).
  exact (tsd_reader_order c crit e lo hi f keys2 files2 Hcfg G Y R2 K2 V2).
Qed.

Corollary timestampsdirect_oracle_C08 c m t0 off ops :
  tsdcfg c (CSize m) -> tag_ok c -> not_gz c -> Forall basic_op ops -> Forall tick_ok ops ->
  (0 <= t0 + ts_e c off)%Z -> (t0 + elapsed ops + ts_e c off < sec_max)%Z -> (N.of_nat (length ops) <= usize_max)%N ->
  oracle_C08 m None (items false ops) (family_in_order c (snap_of (fst (run (sys0 t0 off) (OStart c :: ops ++ [OStop]))))) = true.
Proof.
  intros Hcfg T G Hb Htk Hlo Hhi Hmax. unfold oracle_C08.
  destruct (timestampsdirect_partition c m t0 off ops Hcfg T Hb Htk Hlo Hhi Hmax) as [keys [V [K Rg]]].
  assert (Y : years_ok (ts_e c off) t0 (t0 + elapsed ops)) by (split; assumption).
  pose proof (tsd_reader_order c (CSize m) _ _ _ _ keys _ Hcfg G Y Rg K V) as E. rewrite <- snap_of_list in E.
  rewrite E. apply list_beq_refl.
Qed.
Print Assumptions timestampsdirect_oracle_C01.
Print Assumptions timestampsdirect_oracle_C08.

(* ------------------------------------------------------------------ examples *)
Import String.StringSyntax.
Open Scope string_scope.
Definition tsd_cfg (sp : file_spec) (app : bool) (crit : criterion) (cap : option nat) (utc : bool) : config :=
  {| c_spec := sp; c_append := app; c_cap := cap; c_rot := Some (crit, NTimestampsDirect, KNever); c_utc := utc;
     c_symlink := false; c_bg := false; c_async := false; c_start := None |}.

Lemma tsd_cfg_ok sp app crit cap utc : fts sp = false -> tsdcfg (tsd_cfg sp app crit cap utc) crit.
Proof. intros H. repeat split. exact H. Qed.

(* the history of TsTheorems.ts_instance_dir: three rotations within one second, then the clock advances, two more
   rotations.  Each file carries the second in which it was STARTED: "d" was started in second 0 (restart-0002) and closed in
   second 1; "e" is the first file of second 1, "f" the second one (restart-0000) - and the last file is the one that was
   written last, there is no rCURRENT *)
Definition tsd_c : config := tsd_cfg (ex_sp "log") false (CSize 100) (Some 3%nat) false.

Example tsd_instance_dir :
  snap_of (fst (run (sys0 0 0) (OStart tsd_c :: ext_ops ++ [OStop])))
  = [ (bs "app_r1970-01-01_00-00-00.log", 0%N, bs "a");
      (bs "app_r1970-01-01_00-00-00.restart-0000.log", 0%N, bs "b");
      (bs "app_r1970-01-01_00-00-00.restart-0001.log", 0%N, bs "c");
      (bs "app_r1970-01-01_00-00-00.restart-0002.log", 0%N, bs "d");
      (bs "app_r1970-01-01_00-00-01.log", 0%N, bs "e");
      (bs "app_r1970-01-01_00-00-01.restart-0000.log", 0%N, bs "f") ].
Proof. vm_compute. reflexivity. Qed.

(* three rotations in one second, a tick, another rotation *)
Definition tsd_ops3 : list op :=
  [OWrite (bs "a"); OTrigger; OWrite (bs "b"); OTrigger; OWrite (bs "c"); OTrigger; OWrite (bs "d"); OTick 1; OTrigger; OWrite (bs "e")].
Example tsd_three_rotations_dir :
  snap_of (fst (run (sys0 0 0) (OStart tsd_c :: tsd_ops3 ++ [OStop])))
  = [ (bs "app_r1970-01-01_00-00-00.log", 0%N, bs "a");
      (bs "app_r1970-01-01_00-00-00.restart-0000.log", 0%N, bs "b");
      (bs "app_r1970-01-01_00-00-00.restart-0001.log", 0%N, bs "c");
      (bs "app_r1970-01-01_00-00-00.restart-0002.log", 0%N, bs "d");
      (bs "app_r1970-01-01_00-00-01.log", 0%N, bs "e") ].
Proof. vm_compute. reflexivity. Qed.

(* with append (on the empty directory) the very same directory: nothing is found to be continued *)
Example tsd_append_same_dir :
  snap_of (fst (run (sys0 0 0) (OStart (tsd_cfg (ex_sp "log") true (CSize 100) (Some 3%nat) false) :: ext_ops ++ [OStop])))
  = snap_of (fst (run (sys0 0 0) (OStart tsd_c :: ext_ops ++ [OStop]))).
Proof. vm_compute. reflexivity. Qed.

(* the same history with Timestamps naming: the same contents; there the name says when the file was closed - rather: when
   its successor was started -, and the last file is rCURRENT *)
Example timestamps_same_contents :
  List.map snd (snap_of (fst (run (sys0 0 0) (OStart ext_c :: ext_ops ++ [OStop]))))
  = List.map snd (snap_of (fst (run (sys0 0 0) (OStart tsd_c :: ext_ops ++ [OStop])))).
Proof. vm_compute. reflexivity. Qed.

(* the hypotheses of the theorems can be met *)
Lemma tsd_c_ok : tsdcfg tsd_c (CSize 100).
Proof. apply tsd_cfg_ok. reflexivity. Qed.
Lemma tsd_c_tag_ok : tag_ok tsd_c.
Proof. apply tag_free_ok. split; vm_compute; reflexivity. Qed.
Lemma tsd_c_not_gz : not_gz tsd_c.
Proof. vm_compute. reflexivity. Qed.

Example tsd_stream_instance :
  exists keys files,
    files <> []
    /\ tsd_view tsd_c 0 (wfs (s_w (fst (run (sys0 0 0) (OStart tsd_c :: ext_ops ++ [OStop]))))) keys files
    /\ concat files = bs "abcdef" /\ keys_ok keys /\ (forall k, In k keys -> (0 <= fst k <= 1)%Z).
Proof.
  destruct (timestampsdirect_stream tsd_c (CSize 100) 0 0 ext_ops tsd_c_ok tsd_c_tag_ok ext_ops_basic ext_ops_ticks)
    as [[_ H]|H]; [change (0 <= 0)%Z; lia | change (1 < sec_max)%Z; unfold sec_max; lia | vm_compute; discriminate | discriminate H | exact H].
Qed.

(* the keys of this history, as the invariant has them: (second of the start, position) *)
Example tsd_instance_keys :
  List.map (kname tsd_c 0) [(0%Z, 0); (0%Z, 1); (0%Z, 2); (0%Z, 3); (1%Z, 0); (1%Z, 1)]
  = List.map (fun x : bytes * N * bytes => fst (fst x)) (snap_of (fst (run (sys0 0 0) (OStart tsd_c :: ext_ops ++ [OStop]))))
  /\ keys_ok [(0%Z, 0); (0%Z, 1); (0%Z, 2); (0%Z, 3); (1%Z, 0); (1%Z, 1)].
Proof.
  split; [vm_compute; reflexivity|].
  apply (ko_snoc [(0%Z, 0); (0%Z, 1); (0%Z, 2); (0%Z, 3); (1%Z, 0)] 1%Z); [|cbn; intros k H; repeat (destruct H as [<-|H]; [cbn; lia|]); destruct H].
  apply (ko_snoc [(0%Z, 0); (0%Z, 1); (0%Z, 2); (0%Z, 3)] 1%Z); [|cbn; intros k H; repeat (destruct H as [<-|H]; [cbn; lia|]); destruct H].
  apply (ko_snoc [(0%Z, 0); (0%Z, 1); (0%Z, 2)] 0%Z); [|cbn; intros k H; repeat (destruct H as [<-|H]; [cbn; lia|]); destruct H].
  apply (ko_snoc [(0%Z, 0); (0%Z, 1)] 0%Z); [|cbn; intros k H; repeat (destruct H as [<-|H]; [cbn; lia|]); destruct H].
  apply (ko_snoc [(0%Z, 0)] 0%Z); [|cbn; intros k H; repeat (destruct H as [<-|H]; [cbn; lia|]); destruct H].
  apply (ko_snoc [] 0%Z); [constructor | intros k []].
Qed.

(* the reader finds the six files in the order in which they were written: computed, and by the theorem *)
Example tsd_reader_instance_computed :
  family_in_order tsd_c (snap_of (fst (run (sys0 0 0) (OStart tsd_c :: ext_ops ++ [OStop]))))
  = [bs "a"; bs "b"; bs "c"; bs "d"; bs "e"; bs "f"].
Proof. vm_compute. reflexivity. Qed.

Example tsd_oracle_instance :
  oracle_C01 None (items false ext_ops) (family_in_order tsd_c (snap_of (fst (run (sys0 0 0) (OStart tsd_c :: ext_ops ++ [OStop]))))) = true.
Proof.
  apply (timestampsdirect_oracle_C01 tsd_c (CSize 100) 0 0 ext_ops tsd_c_ok tsd_c_tag_ok tsd_c_not_gz ext_ops_basic ext_ops_ticks).
  - change (0 <= 0)%Z. lia.
  - change (1 < sec_max)%Z. unfold sec_max. lia.
  - vm_compute. discriminate.
Qed.

(* a size criterion: the history of NumDTheorems.exd_ops (a trigger before the first record, buffered records, a rotation by
   size, a trigger at the end), append.  The same contents as for NumbersDirect naming; the trigger before the first record
   leaves no trace, the last one an empty file *)
Definition tsd_c3 : config := tsd_cfg (ex_sp "log") true (CSize 3) (Some 3%nat) false.
Lemma tsd_c3_ok : tsdcfg tsd_c3 (CSize 3).
Proof. apply tsd_cfg_ok. reflexivity. Qed.
Lemma tsd_c3_tag_ok : tag_ok tsd_c3.
Proof. apply tag_free_ok. split; vm_compute; reflexivity. Qed.
Lemma exd_ops_ticks : Forall tick_ok exd_ops.
Proof. repeat (apply Forall_cons; [cbn [tick_ok]; first [exact Logic.I | lia]|]). apply Forall_nil. Qed.

Example tsd_partition_dir :
  snap_of (fst (run (sys0 0 0) (OStart tsd_c3 :: exd_ops ++ [OStop])))
  = [ (bs "app_r1970-01-01_00-00-00.log", 0%N, bs "abcd");
      (bs "app_r1970-01-01_00-00-03.log", 0%N, bs "ef");
      (bs "app_r1970-01-01_00-00-03.restart-0000.log", 0%N, bs "ghi");
      (bs "app_r1970-01-01_00-00-03.restart-0001.log", 0%N, bs "") ]
  /\ expected_files 3 None (items false exd_ops) = [bs "abcd"; bs "ef"; bs "ghi"; bs ""].
Proof. split; vm_compute; reflexivity. Qed.

Example tsd_partition_instance :
  exists keys,
    tsd_view tsd_c3 0 (wfs (s_w (fst (run (sys0 0 0) (OStart tsd_c3 :: exd_ops ++ [OStop]))))) keys [bs "abcd"; bs "ef"; bs "ghi"; bs ""]
    /\ keys_ok keys /\ (forall k, In k keys -> (0 <= fst k <= 3)%Z).
Proof.
  apply (timestampsdirect_partition tsd_c3 3 0 0 exd_ops tsd_c3_ok tsd_c3_tag_ok exd_ops_basic exd_ops_ticks).
  - change (0 <= 0)%Z. lia.
  - change (3 < sec_max)%Z. unfold sec_max. lia.
  - vm_compute. discriminate.
Qed.

(* the rotation flags of the writes, as computed: only the write of "ef" rotates; and by the theorem *)
Example tsd_instance_flags :
  List.map rot_of (snd (run (sys0 0 0) (OStart tsd_c3 :: exd_ops)))
  = [false; false; false; false; true; false; false; false; false; false; false].
Proof. vm_compute. reflexivity. Qed.

Example tsd_rotates_instance :
  nth_error (snd (run (sys0 0 0) (OStart tsd_c3 :: exd_ops))) 4 = Some (ObsRes 0 true).
Proof.
  rewrite (timestampsdirect_rotates_iff tsd_c3 3 0 0 exd_ops 3 (OWrite (bs "ef")) (bs "ef") tsd_c3_ok tsd_c3_tag_ok exd_ops_basic exd_ops_ticks).
  - vm_compute. reflexivity.
  - change (0 <= 0)%Z. lia.
  - change (3 < sec_max)%Z. unfold sec_max. lia.
  - vm_compute. discriminate.
  - reflexivity.
  - left. reflexivity.
Qed.

(* a history without a record: nothing is created *)
Example tsd_no_write_dir :
  snap_of (fst (run (sys0 0 0) (OStart (tsd_cfg (ex_sp "log") false (CAge ADay) None false)
                                 :: [OTrigger; OFlush; OTick 100000; OTrigger] ++ [OStop])))
  = [].
Proof. vm_compute. reflexivity. Qed.

(* use_utc with a zone offset of two hours, a file spec without suffix and with a discriminant, an age criterion: the
   file that is started by the rotation carries the second of the rotation *)
Example tsd_age_dir_local :
  snap_of (fst (run (sys0 1700000000 7200) (OStart (tsd_cfg ext_sp2 true (CAge ADay) None false) :: ext_ops2 ++ [OStop])))
  = [ (bs "srv_a1_r2023-11-15_00-13-20", 0%N, bs "x"); (bs "srv_a1_r2023-11-16_01-13-20", 0%N, bs "yz") ].
Proof. vm_compute. reflexivity. Qed.
Example tsd_age_dir_utc :
  snap_of (fst (run (sys0 1700000000 7200) (OStart (tsd_cfg ext_sp2 true (CAge ADay) None true) :: ext_ops2 ++ [OStop])))
  = [ (bs "srv_a1_r2023-11-14_22-13-20", 0%N, bs "x"); (bs "srv_a1_r2023-11-15_23-13-20", 0%N, bs "yz") ].
Proof. vm_compute. reflexivity. Qed.

(* ------------------------------------------------------------------ the hypotheses are needed *)
(* tick_ok: when the clock goes backwards the order of writing is no longer the order of the time stamps: "b" is written
   before "c" but carries the later second; nothing is lost, but the reader takes "c" before "b" *)
Example tsd_clock_backwards :
  snap_of (fst (run (sys0 0 0) (OStart tsd_c :: back_ops ++ [OStop])))
  = [ (bs "app_r1970-01-01_00-00-00.log", 0%N, bs "a");
      (bs "app_r1970-01-01_00-00-00.restart-0000.log", 0%N, bs "c");
      (bs "app_r1970-01-01_00-00-00.restart-0001.log", 0%N, bs "d");
      (bs "app_r1970-01-01_00-00-05.log", 0%N, bs "b") ]
  /\ family_in_order tsd_c (snap_of (fst (run (sys0 0 0) (OStart tsd_c :: back_ops ++ [OStop]))))
     = [bs "a"; bs "c"; bs "d"; bs "b"]
  /\ written back_ops = bs "abcd".
Proof. vm_compute. repeat split; reflexivity. Qed.

(* tag_ok, the suffix does not start with "restart-": with the suffix "restart-5" the first file of a second, <ts>.restart-5,
   reads like a restart sibling with the counter 5; the counters start at 0006 (nothing is lost) *)
Example tsd_tag_in_suffix_shifts_counters :
  snap_of (fst (run (sys0 0 0) (OStart (tsd_cfg bad_sp2 false (CSize 100) None false) :: rst_ops ++ [OStop])))
  = [ (bs "a_r1970-01-01_00-00-00.restart-0006.restart-5", 0%N, bs "b");
      (bs "a_r1970-01-01_00-00-00.restart-0007.restart-5", 0%N, bs "c");
      (bs "a_r1970-01-01_00-00-00.restart-0008.restart-5", 0%N, bs "d");
      (bs "a_r1970-01-01_00-00-00.restart-5", 0%N, bs "a");
      (bs "a_r1970-01-01_00-00-01.restart-5", 0%N, bs "e") ]
  /\ ~ tag_ok (tsd_cfg bad_sp2 false (CSize 100) None false).
Proof. split; [vm_compute; reflexivity|]. intros [_ [_ H]]. vm_compute in H. discriminate. Qed.
