(* The primitives of the world in the absence of faults and kills (`quiet`): each changes the file system and nothing else,
   stated both with an existential world (`same_env`) and as an equation on `set_fs`; at the end, general facts about the
   roll state that `mount_next`, `initialize` and `roll_new` produce. *)
Require Import FL.Base.Bytes FL.Base.BytesFacts FL.Fs.Fs FL.Fs.FsFacts FL.Names.FileSpec FL.Flw.Model.
Open Scope nat_scope.

Definition quiet (w : world) : Prop := wfaults w = [] /\ wkill w = None.

(* w' differs from w at most in the file system *)
Definition same_env (w w' : world) : Prop :=
  quiet w' /\ wnow w' = wnow w /\ woff w' = woff w /\ werrs w' = werrs w /\ wlink w' = wlink w /\ wacts w' = wacts w.

Lemma same_env_refl w : quiet w -> same_env w w.
Proof. intros Q. repeat split; apply Q. Qed.
Lemma same_env_trans a b c : same_env a b -> same_env b c -> same_env a c.
Proof. unfold same_env. intros [Q1 [A1 [B1 [C1 [D1 E1]]]]] [Q2 [A2 [B2 [C2 [D2 E2]]]]]. repeat split; try apply Q2; congruence. Qed.

Lemma tick_quiet w : quiet w -> tick w = (false, w).
Proof. intros [F _]. unfold tick. rewrite F. reflexivity. Qed.

Lemma effect_quiet w g : quiet w -> wfs (effect w g) = g (wfs w) /\ same_env w (effect w g).
Proof. intros [F K]. unfold effect, kill_step. rewrite K. cbn. repeat split; auto. Qed.

Lemma set_fs_env w f : quiet w -> wfs (set_fs w f) = f /\ same_env w (set_fs w f).
Proof. intros [F K]. cbn. repeat split; auto. Qed.

Lemma p_write_quiet w i b : quiet w ->
  exists w', p_write w i b = (true, w') /\ wfs w' = append_ino (wfs w) i b /\ same_env w w'.
Proof.
  intros Q. unfold p_write. destruct b as [|x b].
  - exists w. split; [reflexivity|]. split; [rewrite append_ino_nil_id; reflexivity | apply same_env_refl; assumption].
  - rewrite tick_quiet by assumption. eexists. split; [reflexivity|]. apply effect_quiet. assumption.
Qed.

Lemma p_rename_quiet w a b : quiet w ->
  match rename (wfs w) a b with
  | Some f' => exists w', p_rename w a b = (ROk, w') /\ wfs w' = f' /\ same_env w w'
  | None => p_rename w a b = (RNotFound, w)
  end.
Proof.
  intros Q. unfold p_rename. rewrite tick_quiet by assumption. destruct (rename (wfs w) a b) as [f'|] eqn:E; [|reflexivity].
  eexists. split; [reflexivity|]. destruct (effect_quiet w (fun f => match rename f a b with Some f' => f' | None => f end) Q) as [H1 H2].
  split; [rewrite H1, E; reflexivity | exact H2].
Qed.

Lemma p_open_quiet w name append : quiet w ->
  match file_of (wfs w) name with Some fl => fdir fl = false | None => True end ->
  exists w', p_open w name append
             = (Some (snd (if append then open_append (wfs w) name (wnow w) else open_trunc (wfs w) name 0%N (wnow w))), w')
    /\ wfs w' = fst (if append then open_append (wfs w) name (wnow w) else open_trunc (wfs w) name 0%N (wnow w))
    /\ same_env w w'.
Proof.
  intros Q D. unfold p_open. rewrite tick_quiet by assumption.
  destruct (file_of (wfs w) name) as [fl|] eqn:E; [rewrite D|]; (eexists; split; [reflexivity|]; apply effect_quiet; assumption).
Qed.

Lemma w_flush_quiet w wr : quiet w ->
  exists w', w_flush w wr = (true, w', {| wino := wino wr; wpend := []; wcap := wcap wr |})
    /\ wfs w' = append_ino (wfs w) (wino wr) (wpend wr) /\ same_env w w'.
Proof.
  intros Q. unfold w_flush. destruct (p_write_quiet w (wino wr) (wpend wr) Q) as [w' [E [F S]]].
  rewrite E. exists w'. auto.
Qed.

(* the buffer never holds more than its capacity; an unbuffered writer holds nothing *)
Definition wr_ok (wr : writer) : Prop :=
  match wcap wr with None => wpend wr = [] | Some c => length (wpend wr) <= c end.

(* write_all without faults: where the bytes end up *)
Lemma w_write_quiet w wr b : quiet w -> wr_ok wr ->
  exists w' wr' flushed, w_write w wr b = (true, w', wr') /\ same_env w w'
    /\ wfs w' = append_ino (wfs w) (wino wr) flushed
    /\ wino wr' = wino wr /\ wcap wr' = wcap wr
    /\ flushed ++ wpend wr' = wpend wr ++ b
    /\ wr_ok wr'.
Proof.
  intros Q HP. destruct wr as [ino pend cap]. unfold wr_ok in *. cbn [wino wpend wcap] in *. unfold w_write; cbn [wino wpend wcap].
  destruct cap as [c|].
  - destruct (Nat.ltb (length b) (c - length pend)) eqn:E1.
    + exists w, {| wino := ino; wpend := pend ++ b; wcap := Some c |}, [].
      split; [reflexivity|]. split; [apply same_env_refl; assumption|].
      split; [rewrite append_ino_nil_id; reflexivity|]. cbn. apply Nat.ltb_lt in E1. rewrite app_length. repeat split; auto; lia.
    + destruct (Nat.ltb (c - length pend) (length b)) eqn:E2.
      * destruct (w_flush_quiet w {| wino := ino; wpend := pend; wcap := Some c |} Q) as [w1 [Ef [F1 S1]]]. rewrite Ef.
        cbn [wino wpend wcap] in *.
        destruct (Nat.leb c (length b)) eqn:E3; cbn [wino wpend wcap].
        -- destruct (p_write_quiet w1 ino b (proj1 S1)) as [w2 [Ew [F2 S2]]]. rewrite Ew.
           exists w2, {| wino := ino; wpend := []; wcap := Some c |}, (pend ++ b).
           split; [reflexivity|]. split; [eapply same_env_trans; eassumption|].
           split; [rewrite F2, F1, append_ino_app; reflexivity|].
           cbn. rewrite app_nil_r. repeat split; auto; lia.
        -- exists w1, {| wino := ino; wpend := [] ++ b; wcap := Some c |}, pend.
           split; [reflexivity|]. split; [exact S1|]. split; [exact F1|]. cbn. apply Nat.leb_gt in E3. repeat split; auto; lia.
      * destruct (Nat.leb c (length b)) eqn:E3; cbn [wino wpend wcap].
        -- destruct (p_write_quiet w ino b Q) as [w2 [Ew [F2 S2]]]. rewrite Ew.
           apply Nat.ltb_ge in E1, E2. apply Nat.leb_le in E3.
           assert (Hp : pend = []) by (destruct pend; [reflexivity | cbn in *; lia]). subst pend.
           exists w2, {| wino := ino; wpend := []; wcap := Some c |}, b. split; [reflexivity|]. split; [exact S2|]. split; [exact F2|].
           cbn. rewrite app_nil_r. repeat split; auto; lia.
        -- exists w, {| wino := ino; wpend := pend ++ b; wcap := Some c |}, [].
           split; [reflexivity|]. split; [apply same_env_refl; assumption|].
           split; [rewrite append_ino_nil_id; reflexivity|]. cbn.
           apply Nat.ltb_ge in E1, E2. apply Nat.leb_gt in E3. rewrite app_length. repeat split; auto; lia.
  - subst pend. cbn [wino wpend wcap]. destruct (p_write_quiet w ino b Q) as [w2 [Ew [F2 S2]]]. rewrite Ew.
    exists w2, {| wino := ino; wpend := []; wcap := None |}, b. split; [reflexivity|]. split; [exact S2|]. split; [exact F2|]. cbn.
    rewrite app_nil_r. repeat split; auto.
Qed.

Lemma wr_ok_nil i cap : wr_ok {| wino := i; wpend := []; wcap := cap |}.
Proof. unfold wr_ok. cbn. destruct cap; [apply Nat.le_0_l | reflexivity]. Qed.

Lemma quiet_set_fs w f : quiet w -> quiet (set_fs w f).
Proof. intros Q. exact Q. Qed.

Lemma same_env_set_fs w f : quiet w -> same_env w (set_fs w f).
Proof. intros Q. apply (set_fs_env w f Q). Qed.

Lemma set_fs_id w : set_fs w (wfs w) = w.
Proof. destruct w. reflexivity. Qed.

Lemma set_fs_set_fs w f g : set_fs (set_fs w f) g = set_fs w g.
Proof. reflexivity. Qed.

Lemma effect_quiet_eq w g : quiet w -> effect w g = set_fs w (g (wfs w)).
Proof. intros [_ K]. unfold effect, kill_step. rewrite K. destruct w; cbn in *; subst; reflexivity. Qed.

Lemma p_write_quiet_eq w i b : quiet w -> p_write w i b = (true, set_fs w (append_ino (wfs w) i b)).
Proof.
  intros Q. unfold p_write. destruct b as [|x b].
  - rewrite append_ino_nil_id, set_fs_id. reflexivity.
  - rewrite tick_quiet, effect_quiet_eq by assumption. reflexivity.
Qed.

Lemma w_flush_quiet_eq w wr : quiet w ->
  w_flush w wr = (true, set_fs w (append_ino (wfs w) (wino wr) (wpend wr)), {| wino := wino wr; wpend := []; wcap := wcap wr |}).
Proof. intros Q. unfold w_flush. rewrite p_write_quiet_eq by assumption. reflexivity. Qed.

Lemma p_remove_quiet_eq w a j : quiet w -> lookup (wfs w) a = Some j -> p_remove w a = (true, set_fs w (unlink (wfs w) a)).
Proof. intros Q L. unfold p_remove. rewrite tick_quiet, L, effect_quiet_eq by assumption. reflexivity. Qed.

Lemma p_open_fresh w name append : quiet w -> lookup (wfs w) name = None ->
  p_open w name append = (Some (length (inodes (wfs w))), set_fs w (fst (create_file (wfs w) name 0%N (wnow w)))).
Proof.
  intros Q L. unfold p_open. rewrite tick_quiet, (file_of_missing _ _ L), effect_quiet_eq by assumption.
  destruct append; rewrite ?open_append_fresh, ?open_trunc_fresh by exact L; reflexivity.
Qed.

Lemma open_log_file_fresh c w o : quiet w -> c_symlink c = false -> lookup (wfs w) (name_of c w o) = None ->
  open_log_file c w o
  = (Ok ({| wino := length (inodes (wfs w)); wpend := []; wcap := c_cap c |}, name_of c w o),
     set_fs w (fst (create_file (wfs w) (name_of c w o) 0%N (wnow w)))).
Proof.
  intros Q Hl L. unfold open_log_file, do_symlink. rewrite Hl, (p_open_fresh _ _ _ Q L). reflexivity.
Qed.

Definition roll_of (crit : criterion) (size : N) (created : Z) : roll_state :=
  match crit with CSize n => RSize n size | CAge a => RAge a created | CAgeOrSize a n => RAgeSize a created n size end.

Lemma roll_new_quiet w crit append path fl : quiet w -> file_of (wfs w) path = Some fl ->
  roll_new w crit append path = (Ok (roll_of crit (if append then N.of_nat (length (fdata fl)) else 0%N) (fborn fl)), w).
Proof.
  intros Q F. unfold roll_new, birth_or_now. destruct append.
  - rewrite tick_quiet, F by assumption. rewrite F. destruct crit; reflexivity.
  - rewrite F. destruct crit; reflexivity.
Qed.

Lemma mount_next_roll c w rs wr path force w' st' :
  mount_next c w (Active (Some rs) wr path) force = (Ok tt, w', st') ->
  force || rotation_necessary w (rs_roll rs) = true ->
  exists rs' wr' path' w3, st' = Active (Some rs') wr' path' /\ rs_roll rs' = reset_size_and_date w3 (rs_roll rs) path'.
Proof.
  intros E H. unfold mount_next in E. rewrite H in E.
  assert (Fin : forall infix w1 ns1,
    match open_log_file c w1 (Some infix) with
    | (Ok (wr', path'), w2) =>
      let '(okf, w2a, wra) := w_flush w2 wr in
      let w2b := if okf then w2a else report EFlush w2a in
      let w3 := w_drop w2b wra in
      let roll' := reset_size_and_date w3 (rs_roll rs) path' in
      let '(rc, w4) := cleanup_or_queue c w3 (rs_bg rs) (rs_cleanup rs) (ns_filter ns1) (if ns_writes_direct ns1 then Some path' else None) in
      let st' := Active (Some {| rs_naming := ns1; rs_roll := roll'; rs_cleanup := rs_cleanup rs; rs_bg := rs_bg rs |}) wr' path' in
      (match rc with Ok _ => Ok tt | Err => Err | Panic => Panic end, w4, st')
    | (Err, w2) => (Err, w2, Active (Some {| rs_naming := ns1; rs_roll := rs_roll rs; rs_cleanup := rs_cleanup rs; rs_bg := rs_bg rs |}) wr path)
    | (Panic, w2) => (Panic, w2, Active (Some {| rs_naming := ns1; rs_roll := rs_roll rs; rs_cleanup := rs_cleanup rs; rs_bg := rs_bg rs |}) wr path)
    end = (Ok tt, w', st') ->
    exists rs' wr' path' w3, st' = Active (Some rs') wr' path' /\ rs_roll rs' = reset_size_and_date w3 (rs_roll rs) path').
  { intros infix w1 ns1 E1.
    destruct (open_log_file c w1 (Some infix)) as [[[wr' path']| |] w2]; try discriminate.
    destruct (w_flush w2 wr) as [[okf w2a] wra].
    cbv zeta in E1.
    match type of E1 with context [cleanup_or_queue ?a ?b ?d ?e ?g ?h] => destruct (cleanup_or_queue a b d e g h) as [rc w4] end.
    destruct rc; try discriminate. injection E1 as <- <-.
    eexists _, wr', path', _. split; reflexivity. }
  destruct (rs_naming rs) as [ts [cur|] fmt | idx | idx].
  - destruct (creation_ts_of_current c w cur true (Some ts) fmt) as [[ts'| |] w1]; try discriminate. exact (Fin _ _ _ E).
  - destruct (collision_free c w (infix_from_ts c w fmt (wnow w))) as [[i| |] w1]; try discriminate. exact (Fin _ _ _ E).
  - destruct (index_for_rcurrent c w (Some idx) true) as [[idx'| |] w1]; try discriminate. exact (Fin _ _ _ E).
  - exact (Fin _ _ _ E).
Qed.

Lemma initialize_roll c w crit nam rs wr p w' :
  c_rot c = Some (crit, nam, KNever) -> initialize c w = (Ok (Active (Some rs) wr p), w') ->
  exists w2, roll_new w2 crit (c_append c) p = (Ok (rs_roll rs), w').
Proof.
  intros Hrot E. unfold initialize in E. rewrite Hrot in E.
  destruct (init_naming c w nam) as [[[ns infix]| |] w1]; cbn [bind] in E; try discriminate.
  destruct (open_log_file c w1 (Some infix)) as [[[wr0 path]| |] w2]; cbn [bind] in E; try discriminate.
  destruct (roll_new w2 crit (c_append c) path) as [[roll| |] w3] eqn:ER; cbn [bind] in E; try discriminate.
  injection E as <- <- <- <-. exists w2. exact ER.
Qed.

Lemma roll_new_size w crit app p roll w' : roll_new w crit app p = (Ok roll, w') ->
  exists size created,
    roll = match crit with CSize n => RSize n size | CAge a => RAge a created | CAgeOrSize a n => RAgeSize a created n size end
    /\ (if app then exists f, file_of (wfs w') p = Some f /\ size = N.of_nat (length (fdata f)) else size = 0%N).
Proof.
  unfold roll_new. destruct app.
  - destruct (tick w) as [fl w1]. destruct fl; [discriminate|].
    destruct (file_of (wfs w1) p) as [f|] eqn:Ef; [|discriminate].
    intros E. injection E as <- <-. eexists _, _. split; [reflexivity|]. exists f. split; [exact Ef | reflexivity].
  - intros E. injection E as <- <-. eexists _, _. split; reflexivity.
Qed.

