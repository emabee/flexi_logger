(* NumbersDirect naming (r00000, r00001, ...; no rCURRENT) with an age criterion (or age-or-size, or size): C09 for whole
   runs from an empty directory.  The timed abstract view of NumAgeInv.v (closed files and the current file, each with the
   instant at which it was started) is refined by the model; the roll state's `created` is that instant: the new file
   r(n+1) is created by the rotation, and its birth time is read back from the file system right afterwards.
   As for Numbers naming nothing is assumed about the clock: it may be set back (the decision is "another period"). *)
Require Import FL.Base.Bytes FL.Fs.Fs FL.Time.Period FL.Names.FileSpec FL.Flw.Model FL.Flw.ModelFacts FL.Flw.NumInv
  FL.Flw.Run FL.Flw.RunFacts FL.Flw.NumRun FL.Oracles.O_Flw FL.Oracles.O_Age FL.Flw.NumTheorems FL.Flw.NumAgeInv
  FL.Flw.NumAge FL.Flw.NumRestart FL.Flw.NumDInv FL.Flw.NumDRun FL.Flw.NumDTheorems.
Open Scope nat_scope.

(* ------------------------------------------------------------------ the invariant against the timed view *)
Definition RelDT : config -> criterion -> sys -> tview -> Prop :=
  LRelT (fun n => NSNumD (N.of_nat n)) (fun c n => rname c n) NumDInv.

Lemma RelDT_RelD c crit x v : RelDT c crit x v -> RelD c crit x (untime v).
Proof. exact (lrelT_rel _ _ _ c crit x v). Qed.

Lemma start_relDT c crit t0 off : RelDT c crit (fst (step (sys0 t0 off) (OStart c))) None.
Proof. cbn. repeat split. Qed.

(* a whole run: the invariant, the clock, and every rotation flag *)
Lemma run_relDT c crit : numdcfg c crit -> forall ops x v, RelDT c crit x v -> Forall basic_op ops ->
  let off := woff (s_w x) in let t := wnow (s_w x) in
  RelDT c crit (fst (run x ops)) (t_run crit off v t ops)
  /\ woff (s_w (fst (run x ops))) = off /\ wnow (s_w (fst (run x ops))) = clock_run t ops
  /\ (forall i o, nth_error ops i = Some o -> forall b, (o = OWrite b \/ o = OPlain b) ->
        nth_error (snd (run x ops)) i
        = Some (ObsRes 0 (t_flag crit off (t_run crit off v t (firstn i ops)) (clock_run t (firstn i ops))))).
Proof. exact (lrun_relT _ _ _ _ numd_layout c crit). Qed.

(* ------------------------------------------------------------------ 1. the rotation flags *)
(* The flag observed for the i-th operation, a write at clock value t = t0 + the ticks before it, is the oracle's
   decision `rotate_due` on the state before it: the start instant and the content (disk + buffer) of the file being
   written - the one with the highest number -, which is the last file of the oracle's partition of the history so far.
   No file yet: no rotation.  Every history: the clock may also be set back. *)
Theorem numbersdirect_age_flags c crit t0 off ops i o b :
  numdcfg c crit -> Forall basic_op ops -> nth_error ops i = Some o -> (o = OWrite b \/ o = OPlain b) ->
  nth_error (snd (run (sys0 t0 off) (OStart c :: ops))) (S i)
  = Some (ObsRes 0
      match last_opt (tpartition (age_of crit) (lim_of crit) off [] None (titems t0 (firstn i ops))) with
      | None => false
      | Some (start, content) => rotate_due (age_of crit) (lim_of crit) off start content (clock_run t0 (firstn i ops))
      end).
Proof.
  intros Hcfg Hb Hi Ho. cbn [run]. destruct (step (sys0 t0 off) (OStart c)) as [x0 ob0] eqn:E0.
  pose proof (start_relDT c crit t0 off) as R0. pose proof (start_clock c t0 off) as [N0 O0]. rewrite E0 in R0, N0, O0. cbn [fst] in R0, N0, O0.
  pose proof (run_relDT c crit Hcfg ops x0 None R0 Hb) as [_ [_ [_ Hr]]]. rewrite N0, O0 in Hr.
  destruct (run x0 ops) as [x1 obs1]. cbn [snd nth_error] in *. rewrite (Hr i o Hi b Ho). do 2 f_equal.
  pose proof (t_run_partition crit off (firstn i ops) None t0) as P. cbn [tcl tcu] in P. rewrite <- P, tfiles_last.
  unfold t_flag, tcu, due, age_of, lim_of. destruct (t_run crit off None t0 (firstn i ops)) as [[cl [st cu]]|]; reflexivity.
Qed.

(* the same for the two criteria, the decision spelled out *)
Corollary numbersdirect_age_flags_age c a t0 off ops i o b :
  numdcfg c (CAge a) -> Forall basic_op ops -> nth_error ops i = Some o -> (o = OWrite b \/ o = OPlain b) ->
  nth_error (snd (run (sys0 t0 off) (OStart c :: ops))) (S i)
  = Some (ObsRes 0
      match last_opt (tpartition (Some a) None off [] None (titems t0 (firstn i ops))) with
      | None => false
      | Some (start, _) => negb (period_of a (start + off) =? period_of a (clock_run t0 (firstn i ops) + off))%Z
      end).
Proof.
  intros Hcfg Hb Hi Ho. rewrite (numbersdirect_age_flags c (CAge a) t0 off ops i o b Hcfg Hb Hi Ho). do 2 f_equal.
  cbn [age_of lim_of crit_parts fst snd]. destruct (last_opt _) as [[st cu]|]; [|reflexivity].
  unfold rotate_due. apply Bool.orb_false_r.
Qed.

Corollary numbersdirect_age_flags_age_or_size c a m t0 off ops i o b :
  numdcfg c (CAgeOrSize a m) -> Forall basic_op ops -> nth_error ops i = Some o -> (o = OWrite b \/ o = OPlain b) ->
  nth_error (snd (run (sys0 t0 off) (OStart c :: ops))) (S i)
  = Some (ObsRes 0
      match last_opt (tpartition (Some a) (Some m) off [] None (titems t0 (firstn i ops))) with
      | None => false
      | Some (start, content) =>
        negb (period_of a (start + off) =? period_of a (clock_run t0 (firstn i ops) + off))%Z
        || (m <? N.of_nat (length content))%N
      end).
Proof.
  intros Hcfg Hb Hi Ho. rewrite (numbersdirect_age_flags c (CAgeOrSize a m) t0 off ops i o b Hcfg Hb Hi Ho). reflexivity.
Qed.

(* ------------------------------------------------------------------ 2. the files *)
(* After the writer is stopped the directory consists exactly (direct_view) of the plain files r00000 .. r(n) - nothing
   else; it is empty when nothing was written - and their contents, in number order, are exactly the contents the oracle
   computes from the timed history. *)
Theorem numbersdirect_age_partition c crit t0 off ops :
  numdcfg c crit -> Forall basic_op ops ->
  direct_view c (wfs (s_w (fst (run (sys0 t0 off) (OStart c :: ops ++ [OStop])))))
              (List.map snd (tpartition (age_of crit) (lim_of crit) off [] None (titems t0 ops))).
Proof.
  intros Hcfg Hb. cbn [run]. destruct (step (sys0 t0 off) (OStart c)) as [x0 ob0] eqn:E0.
  pose proof (start_relDT c crit t0 off) as R0. pose proof (start_clock c t0 off) as [N0 O0]. rewrite E0 in R0, N0, O0. cbn [fst] in R0, N0, O0.
  rewrite run_app. pose proof (run_relDT c crit Hcfg ops x0 None R0 Hb) as [R1 _]. rewrite N0, O0 in R1.
  destruct (run x0 ops) as [x1 obs1]. cbn [fst snd] in *.
  pose proof (stop_rel_d c crit x1 _ Hcfg (RelDT_RelD _ _ _ _ R1)) as S. cbn [run]. destruct (step x1 OStop) as [x2 ob2]. cbn [fst].
  pose proof (t_run_partition crit off ops None t0) as P. cbn [tcl tcu] in P. rewrite <- P, <- files_of_untime.
  apply files_of_direct. exact S.
Qed.

(* the executable oracle of C09 accepts the list of contents r00000, r00001, ... *)
Corollary numbersdirect_age_oracle c crit t0 off ops :
  numdcfg c crit -> Forall basic_op ops ->
  exists files, direct_view c (wfs (s_w (fst (run (sys0 t0 off) (OStart c :: ops ++ [OStop]))))) files
    /\ oracle_C09_partition crit off None (titems t0 ops) files = true.
Proof.
  intros Hcfg Hb. eexists. split; [exact (numbersdirect_age_partition c crit t0 off ops Hcfg Hb)|].
  unfold oracle_C09_partition, age_of, lim_of. destruct (crit_parts crit) as [a lim]. apply list_beq2_refl.
Qed.

(* ------------------------------------------------------------------ 3. the property, without the oracle *)
(* The record-level specification of NumAge.v (age_files: which record goes into which file, when each file was started and
   whether by rotate()) is independent of the naming. *)
Theorem numbersdirect_age_records c crit a t0 off ops :
  numdcfg c crit -> age_of crit = Some a -> Forall basic_op ops ->
  let fl := age_files crit off t0 ops in
    direct_view c (wfs (s_w (fst (run (sys0 t0 off) (OStart c :: ops ++ [OStop]))))) (List.map rbytes fl)
    /\ List.map rbytes fl = List.map snd (tpartition (age_of crit) (lim_of crit) off [] None (titems t0 ops))
    /\ concat (List.map rrecs fl) = trecs t0 ops
    /\ (forall f, In f fl -> one_period a off f /\ starts_with_record f)
    /\ trig_starts fl = trig_times false t0 ops
    /\ (forall i f1 f2, nth_error fl i = Some f1 -> nth_error fl (S i) = Some f2 -> was_due crit off f1 f2)
    /\ (ticks_nonneg ops -> forall i f1 f2, nth_error fl i = Some f1 -> nth_error fl (S i) = Some f2 -> start_le f1 f2).
Proof.
  intros Hcfg Ha Hb fl. destruct (age_files_props crit a t0 off ops Ha) as [E R].
  split; [|split; [exact E | exact R]]. unfold fl. rewrite E. exact (numbersdirect_age_partition c crit t0 off ops Hcfg Hb).
Qed.

(* C09 for the pure age criterion, without reference to the oracle: the directory r00000 .. r(n) is an in-order partition
   of the records such that each file holds records of ONE period (that of its start), and no rotation happens inside a
   period - two consecutive files belong to different periods unless rotate() separated them; with a clock that does not
   go backwards, to a LATER period. *)
Theorem numbersdirect_age_periods_pure c a t0 off ops :
  numdcfg c (CAge a) -> Forall basic_op ops ->
  exists fl : list rfile,
    direct_view c (wfs (s_w (fst (run (sys0 t0 off) (OStart c :: ops ++ [OStop]))))) (List.map rbytes fl)
    /\ concat (List.map rrecs fl) = trecs t0 ops
    /\ (forall f t b, In f fl -> In (t, b) (rrecs f) -> period_of a (t + off) = period_of a (rstart f + off))
    /\ (forall f, In f fl -> rtrig f = false -> exists b rest, rrecs f = (rstart f, b) :: rest)
    /\ List.map rstart (filter rtrig fl) = trig_times false t0 ops
    /\ (forall i f1 f2, nth_error fl i = Some f1 -> nth_error fl (S i) = Some f2 -> rtrig f2 = false ->
          period_of a (rstart f1 + off) <> period_of a (rstart f2 + off))
    /\ (ticks_nonneg ops -> forall i f1 f2, nth_error fl i = Some f1 -> nth_error fl (S i) = Some f2 ->
          (period_of a (rstart f1 + off) <= period_of a (rstart f2 + off))%Z
          /\ (rtrig f2 = false -> (period_of a (rstart f1 + off) < period_of a (rstart f2 + off))%Z)).
Proof. intros Hcfg Hb. apply age_periods_pure. exact (numbersdirect_age_partition c (CAge a) t0 off ops Hcfg Hb). Qed.

(* age-or-size: one period per file as well; a file not started by rotate() follows a file of another period or one
   that had exceeded the size limit *)
Theorem numbersdirect_age_or_size_periods_pure c a m t0 off ops :
  numdcfg c (CAgeOrSize a m) -> Forall basic_op ops ->
  exists fl : list rfile,
    direct_view c (wfs (s_w (fst (run (sys0 t0 off) (OStart c :: ops ++ [OStop]))))) (List.map rbytes fl)
    /\ concat (List.map rrecs fl) = trecs t0 ops
    /\ (forall f t b, In f fl -> In (t, b) (rrecs f) -> period_of a (t + off) = period_of a (rstart f + off))
    /\ (forall f, In f fl -> rtrig f = false -> exists b rest, rrecs f = (rstart f, b) :: rest)
    /\ List.map rstart (filter rtrig fl) = trig_times false t0 ops
    /\ (forall i f1 f2, nth_error fl i = Some f1 -> nth_error fl (S i) = Some f2 -> rtrig f2 = false ->
          period_of a (rstart f1 + off) <> period_of a (rstart f2 + off) \/ (m < N.of_nat (length (rbytes f1)))%N)
    /\ (ticks_nonneg ops -> forall i f1 f2, nth_error fl i = Some f1 -> nth_error fl (S i) = Some f2 ->
          (period_of a (rstart f1 + off) <= period_of a (rstart f2 + off))%Z).
Proof. intros Hcfg Hb. apply age_or_size_periods_pure. exact (numbersdirect_age_partition c (CAgeOrSize a m) t0 off ops Hcfg Hb). Qed.

Print Assumptions numbersdirect_age_flags.
Print Assumptions numbersdirect_age_partition.
Print Assumptions numbersdirect_age_oracle.
Print Assumptions numbersdirect_age_records.
Print Assumptions numbersdirect_age_periods_pure.
Print Assumptions numbersdirect_age_or_size_periods_pure.

(* ------------------------------------------------------------------ examples (non-vacuity) *)
Import String.StringSyntax.
Open Scope string_scope.

(* Age::Minute, the history NumAge.minute_ops: the writer is started 59 s before the full minute, a record every 30 s -
   two records in minute 0, two in minute 1, one in minute 2 -, then rotate() and one more record in minute 2 *)
Definition nda_c : config := exd_cfg (ex_sp "log") false (CAge AMinute) (Some 8%nat).
Lemma nda_c_ok : numdcfg nda_c (CAge AMinute).
Proof. apply exd_cfg_ok. reflexivity. Qed.
Lemma nda_minute_ops_basic : Forall basic_op minute_ops.
Proof. repeat constructor. Qed.

Example numd_age_minute_dir :
  snap_of (fst (run (sys0 1 0) (OStart nda_c :: minute_ops ++ [OStop])))
  = [ (bs "app_r00000.log", 0%N, bs "ab"); (bs "app_r00001.log", 0%N, bs "cd"); (bs "app_r00002.log", 0%N, bs "e");
      (bs "app_r00003.log", 0%N, bs "f") ]
  /\ List.map rot_of (snd (run (sys0 1 0) (OStart nda_c :: minute_ops)))
     = [false; false; false; false; false; true; false; false; false; false; true; false; false]
  /\ tpartition (Some AMinute) None 0 [] None (titems 1 minute_ops) = [(1%Z, bs "ab"); (61%Z, bs "cd"); (121%Z, bs "e"); (121%Z, bs "f")].
Proof. repeat split; vm_compute; reflexivity. Qed.

(* the theorems apply: their hypotheses can be met *)
Example numd_age_partition_instance :
  direct_view nda_c (wfs (s_w (fst (run (sys0 1 0) (OStart nda_c :: minute_ops ++ [OStop])))))
    [bs "ab"; bs "cd"; bs "e"; bs "f"].
Proof. exact (numbersdirect_age_partition nda_c (CAge AMinute) 1 0 minute_ops nda_c_ok nda_minute_ops_basic). Qed.

Example numd_age_flag_instance :
  nth_error (snd (run (sys0 1 0) (OStart nda_c :: minute_ops))) 5 = Some (ObsRes 0 true).
Proof.
  rewrite (numbersdirect_age_flags_age nda_c AMinute 1 0 minute_ops 4 (OWrite (bs "c")) (bs "c")
             nda_c_ok nda_minute_ops_basic eq_refl (or_introl eq_refl)).
  vm_compute. reflexivity.
Qed.

Example numd_age_periods_instance :
  exists fl : list rfile,
    direct_view nda_c (wfs (s_w (fst (run (sys0 1 0) (OStart nda_c :: minute_ops ++ [OStop]))))) (List.map rbytes fl)
    /\ concat (List.map rrecs fl) = [(1%Z, bs "a"); (31%Z, bs "b"); (61%Z, bs "c"); (91%Z, bs "d"); (121%Z, bs "e"); (121%Z, bs "f")]
    /\ (forall f t b, In f fl -> In (t, b) (rrecs f) -> period_of AMinute (t + 0) = period_of AMinute (rstart f + 0)).
Proof.
  destruct (numbersdirect_age_periods_pure nda_c AMinute 1 0 minute_ops nda_c_ok nda_minute_ops_basic) as [fl [H1 [H2 [H3 _]]]].
  exists fl. split; [exact H1|]. split; [exact H2 | exact H3].
Qed.

(* age-or-size, limit 1 byte, append, no buffer: "ab" is closed by the write of "c" (size), "cd" by the write of "e"
   (another minute) *)
Example numd_age_or_size_dir :
  snap_of (fst (run (sys0 1 0) (OStart (exd_cfg (ex_sp "log") true (CAgeOrSize AMinute 1) None) ::
                                [OWrite (bs "ab"); OWrite (bs "c"); OWrite (bs "d"); OTick 60; OWrite (bs "e"); OStop])))
  = [ (bs "app_r00000.log", 0%N, bs "ab"); (bs "app_r00001.log", 0%N, bs "cd"); (bs "app_r00002.log", 0%N, bs "e") ].
Proof. vm_compute. reflexivity. Qed.

(* the comparison is "another period", not "a later period": a clock that is set back one minute rotates as well (this is
   why the statements above need no assumption about the ticks); the theorem applies to this history *)
Definition nda_back_ops : list op := [OWrite (bs "a"); OTick (-60); OWrite (bs "b")].
Example numd_clock_set_back :
  snap_of (fst (run (sys0 61 0) (OStart nda_c :: nda_back_ops ++ [OStop])))
  = [ (bs "app_r00000.log", 0%N, bs "a"); (bs "app_r00001.log", 0%N, bs "b") ]
  /\ tpartition (Some AMinute) None 0 [] None (titems 61 nda_back_ops) = [(61%Z, bs "a"); (1%Z, bs "b")].
Proof. split; vm_compute; reflexivity. Qed.
Example numd_clock_set_back_instance :
  direct_view nda_c (wfs (s_w (fst (run (sys0 61 0) (OStart nda_c :: nda_back_ops ++ [OStop]))))) [bs "a"; bs "b"].
Proof. apply (numbersdirect_age_partition nda_c (CAge AMinute) 61 0 nda_back_ops nda_c_ok). repeat constructor. Qed.

(* outside the scope of the theorems (which start from the empty directory): a writer that is restarted with append
   continues the file with the highest number, and the start instant of the continued file is the file's creation time,
   not the instant of the restart - written to in minute 0 by the first writer, it is closed by the first write of the
   second writer in minute 1.  One period per file holds here as well. *)
Example numd_restart_append_birth_time :
  snap_of (fst (run (sys0 1 0) [OStart (exd_cfg (ex_sp "log") true (CAge AMinute) None); OWrite (bs "a"); OStop; OTick 60;
                                OStart (exd_cfg (ex_sp "log") true (CAge AMinute) None); OWrite (bs "b"); OTick 1; OWrite (bs "c"); OStop]))
  = [ (bs "app_r00000.log", 0%N, bs "a"); (bs "app_r00001.log", 0%N, bs "bc") ].
Proof. vm_compute. reflexivity. Qed.
