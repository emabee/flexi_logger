(* C14, "foreign" made explicit: the family tests of the model (ForeignModel.num_member, NumDForeign.numd_member,
   TsForeignFacts.tsd_member / ts_member), which are the hypotheses of the non-interference theorems, accept EXACTLY the
   names of the logger's own naming pattern

       <fixed name part> _ <infix of the ACTIVE naming> [.restart-NNNN] [.<suffix>] [.gz]      (or the rCURRENT file)

   - number namings: the infix is "r" and one or more ASCII digits, nothing else (num_member_iff, numd_member_iff);
   - time-stamp namings: the infix is what chrono reads as r%Y-%m-%d_%H-%M-%S, nothing else (tsd_member_iff, ts_member_iff).
   Hence a file whose name does not follow this pattern is foreign, and the theorems of NumForeign / NumCleanupForeign /
   NumDForeign / TsdForeign / TsForeign say that it is never modified, renamed, compressed, deleted, and that its presence
   changes nothing.

   This became true with two repairs of the code (and of the model):
   (A) InfixFilter::Numbrs accepted every infix "r<digit><anything>" of more than two bytes: a_r1backup.log,
       a_r00001x.log, a_r2024-02-29_23-59-58.log were numbered log files (listed, counted as index, compressed, deleted);
       now: "r" and digits only (FileSpec.filter_infix, NumListing.filter_num_spec);
   (B) latest_timestamp_file (TimestampsDirect with append) listed with that number filter and cut 20 bytes out of every
       name: a foreign a_r2030-01-01_00-00-00x.log made the writer continue a_r2030-01-01_00-00-00.log; now it lists
       with the time-stamp filter, and the family test of the time-stamp namings (TsForeignFacts.ts_like) is the
       time-stamp filter alone: a file with a NUMBER infix is foreign for a Timestamps / TimestampsDirect logger.
   The examples at the end: every name of the lists above is rejected by the member test of the respective naming; what is
   still "not foreign although the logger did not write it" (names that DO follow the pattern). *)
Require Import FL.Base.Bytes FL.Base.BytesFacts FL.Base.PathName FL.Fs.Fs FL.Fs.FsFacts FL.Time.Civil FL.Time.TsFormat
  FL.Names.FileSpec FL.Names.NamesFacts FL.Names.FamilyFacts
  FL.Flw.Model FL.Flw.ModelFacts FL.Flw.NumFs FL.Flw.NumInv FL.Flw.NumListing FL.Flw.CleanupFacts
  FL.Flw.Run FL.Flw.ForeignFs FL.Flw.ForeignModel FL.Flw.NumForeign FL.Flw.NumDForeign
  FL.Flw.TsForeignFacts FL.Flw.TsdForeign FL.Flw.TsForeign.
From Coq Require Import ZifyN ZifyNat ZifyBool.
Open Scope nat_scope.

Lemma qf_gz_is_plain off sp fixed flt n : fsfx sp = Some gz_sfx ->
  qf off (fsfx sp) fixed flt (Some gz_sfx) n = qf off (fsfx sp) fixed flt (fsfx sp) n.
Proof. intros ->. reflexivity. Qed.

(* ------------------------------------------------------------------ the number namings *)
Lemma digits_no_dot ds : all_digits ds = true -> no_dot (r_char :: ds).
Proof.
  intros Hd [H|H]; [discriminate|]. pose proof (all_digits_in _ _ Hd H) as X. vm_compute in X. discriminate.
Qed.

(* the pattern of the number namings: <fixed>_ r<digits> [.restart-NNNN] [.suffix] [.gz] *)
Definition num_pattern (c : config) (n : bytes) : Prop :=
  exists ds rs gz, ds <> [] /\ all_digits ds = true /\ restart_part rs
    /\ (gz = [] \/ (gz = dot_gz /\ fsfx (c_spec c) <> Some gz_sfx))
    /\ n = under (fixed0 c) ++ r_char :: ds ++ rs ++ sfxs (c_spec c) ++ gz.

Theorem numd_member_iff c n : numd_member c n = true <-> num_pattern c n.
Proof.
  unfold numd_member, num_pattern. rewrite orb_true_iff. split.
  - intros [H|H].
    + apply qf_plain_spec in H. destruct H as [i [rs [Hf [_ [Hrs [_ Hn]]]]]].
      apply filter_num_spec in Hf. destruct Hf as [ds [-> [Hne Hd]]].
      exists ds, rs, []. repeat (split; [assumption|]). split; [left; reflexivity|].
      rewrite Hn, app_nil_r. reflexivity.
    + assert (Eg : fsfx (c_spec c) = Some gz_sfx \/ fsfx (c_spec c) <> Some gz_sfx).
      { destruct (fsfx (c_spec c)) as [s|]; [|right; discriminate].
        destruct (beq_spec s gz_sfx) as [->|N]; [left; reflexivity | right; congruence]. }
      destruct Eg as [Eg|Eg].
      * rewrite qf_gz_is_plain in H by exact Eg.
        apply qf_plain_spec in H. destruct H as [i [rs [Hf [_ [Hrs [_ Hn]]]]]].
        apply filter_num_spec in Hf. destruct Hf as [ds [-> [Hne Hd]]].
        exists ds, rs, []. repeat (split; [assumption|]). split; [left; reflexivity|].
        rewrite Hn, app_nil_r. reflexivity.
      * apply (qf_gz_spec _ _ _ _ _ Eg) in H. destruct H as [i [rs [Hf [_ [Hrs [_ Hn]]]]]].
        apply filter_num_spec in Hf. destruct Hf as [ds [-> [Hne Hd]]].
        exists ds, rs, dot_gz. repeat (split; [assumption|]). split; [right; split; [reflexivity | exact Eg]|].
        rewrite Hn. reflexivity.
  - intros [ds [rs [gz [Hne [Hd [Hrs [Hgz Hn]]]]]]].
    assert (Hf : filter_infix 0 IFNum (r_char :: ds) = true) by (apply filter_num_spec; exists ds; auto).
    destruct Hgz as [->|[-> Eg]].
    + left. apply qf_plain_spec. exists (r_char :: ds), rs. split; [exact Hf|]. split; [apply digits_no_dot; exact Hd|].
      split; [exact Hrs|]. split; [discriminate|]. rewrite Hn, app_nil_r. reflexivity.
    + right. apply (qf_gz_spec _ _ _ _ _ Eg). exists (r_char :: ds), rs. split; [exact Hf|].
      split; [apply digits_no_dot; exact Hd|]. split; [exact Hrs|]. split; [discriminate|]. rewrite Hn. reflexivity.
Qed.
Print Assumptions numd_member_iff.

Theorem num_member_iff c n : num_member c n = true <-> n = cname c \/ num_pattern c n.
Proof.
  rewrite numd_member_num, orb_true_iff, numd_member_iff. split.
  - intros [H|H]; [right; exact H | left; apply beq_eq; exact H].
  - intros [->|H]; [right; apply beq_refl | left; exact H].
Qed.
Print Assumptions num_member_iff.

(* what follows the digits is empty or starts with a dot *)
Lemma pattern_tail_dot rs sx gz : restart_part rs -> (sx = [] \/ exists s, sx = dot :: s) -> (gz = [] \/ gz = dot_gz) ->
  rs ++ sx ++ gz = [] \/ exists z, rs ++ sx ++ gz = dot :: z.
Proof.
  intros [->|[d [-> _]]] Hs Hg; [|right; eexists; reflexivity]. cbn [app].
  destruct Hs as [->|[s ->]]; [|right; eexists; reflexivity]. cbn [app].
  destruct Hg as [->| ->]; [left; reflexivity | right; eexists; reflexivity].
Qed.

(* so: a member other than the current file has one or more digits, and nothing else, between "<fixed>_r" and the first
   dot (or the end of the name).  Anything else there - a letter, a word, "-" - makes the name foreign. *)
Definition upto_dot (s : bytes) : bytes := match find_byte dot s with Some e => firstn e s | None => s end.

Lemma upto_dot_digits ds tail : all_digits ds = true -> (tail = [] \/ exists z, tail = dot :: z) -> upto_dot (ds ++ tail) = ds.
Proof.
  intros Hd Ht. assert (Hnd : ~ In dot ds) by (intros I; pose proof (all_digits_in _ _ Hd I) as X; vm_compute in X; discriminate).
  unfold upto_dot. destruct Ht as [->|[z ->]].
  - rewrite app_nil_r. apply find_byte_none in Hnd. rewrite Hnd. reflexivity.
  - rewrite find_byte_app by exact Hnd. apply firstn_length_app.
Qed.

Theorem num_member_digits c n : num_member c n = true ->
  n = cname c \/ exists rest, n = under (fixed0 c) ++ r_char :: rest /\ upto_dot rest <> [] /\ all_digits (upto_dot rest) = true.
Proof.
  intros H. apply num_member_iff in H. destruct H as [H|[ds [rs [gz [Hne [Hd [Hrs [Hgz Hn]]]]]]]]; [left; exact H|].
  right. exists (ds ++ rs ++ sfxs (c_spec c) ++ gz). split; [exact Hn|].
  rewrite upto_dot_digits; [split; assumption | exact Hd |].
  apply pattern_tail_dot; [exact Hrs | | destruct Hgz as [->|[-> _]]; auto].
  unfold sfxs. destruct (fsfx (c_spec c)) as [s|]; [right; eexists; reflexivity | left; reflexivity].
Qed.
Print Assumptions num_member_digits.

Corollary num_foreign_non_digit c rest :
  (upto_dot rest = [] \/ all_digits (upto_dot rest) = false) ->
  under (fixed0 c) ++ r_char :: rest <> cname c ->
  num_member c (under (fixed0 c) ++ r_char :: rest) = false.
Proof.
  intros Hb Hc. destruct (num_member c _) eqn:E; [exfalso | reflexivity].
  apply num_member_digits in E. destruct E as [E|[rest' [E [Hne Hd]]]]; [exact (Hc E)|].
  apply under_app_inv in E. injection E as <-. destruct Hb as [Hb|Hb]; congruence.
Qed.

Theorem numd_member_digits c n : numd_member c n = true ->
  exists rest, n = under (fixed0 c) ++ r_char :: rest /\ upto_dot rest <> [] /\ all_digits (upto_dot rest) = true.
Proof.
  intros H. apply numd_member_iff in H. destruct H as [ds [rs [gz [Hne [Hd [Hrs [Hgz Hn]]]]]]].
  exists (ds ++ rs ++ sfxs (c_spec c) ++ gz). split; [exact Hn|].
  rewrite upto_dot_digits; [split; assumption | exact Hd |].
  apply pattern_tail_dot; [exact Hrs | | destruct Hgz as [->|[-> _]]; auto].
  unfold sfxs. destruct (fsfx (c_spec c)) as [s|]; [right; eexists; reflexivity | left; reflexivity].
Qed.
Print Assumptions numd_member_digits.

(* ------------------------------------------------------------------ the time-stamp namings *)
(* the pattern of the time-stamp namings: <fixed>_ <a time stamp r%Y-%m-%d_%H-%M-%S: read by chrono AND exactly the text the format writes for it> [.restart-NNNN] [.suffix] [.gz] *)
Definition ts_pattern (c : config) (n : bytes) : Prop :=
  exists i rs gz, canonical_ts std_fmt i = true /\ no_dot i /\ restart_part rs /\ (gz = [] \/ gz = dot_gz)
    /\ n = under (fixed0 c) ++ i ++ rs ++ sfxs (c_spec c) ++ gz.

Lemma ts_filter_iff off i : filter_infix off (IFTs std_fmt) i = true <-> canonical_ts std_fmt i = true.
Proof. cbn [filter_infix]. split; intros H; exact H. Qed.

Lemma fam_q_plain_iff c n : fam_q c (fsfx (c_spec c)) n = true <->
  exists i rs, canonical_ts std_fmt i = true /\ no_dot i /\ restart_part rs
               /\ n = under (fixed0 c) ++ i ++ rs ++ sfxs (c_spec c).
Proof.
  rewrite (fam_q_qf c _ _ 0%Z), qf_plain_spec. split.
  - intros [i [rs [Hf [Hnd [Hrs [_ Hn]]]]]]. exists i, rs. apply ts_filter_iff in Hf. auto.
  - intros [i [rs [Hp [Hnd [Hrs Hn]]]]]. exists i, rs. apply (ts_filter_iff 0%Z) in Hp. repeat (split; [assumption|]).
    split; [|exact Hn]. intros E. apply app_eq_nil in E. destruct E as [-> _]. vm_compute in Hp. discriminate.
Qed.

Theorem tsd_member_iff c n : tsd_member c n = true <-> ts_pattern c n.
Proof.
  unfold tsd_member, ts_pattern. rewrite !orb_true_iff. split.
  - intros [[H|H]|H].
    + apply fam_q_plain_iff in H. destruct H as [i [rs [Hp [Hnd [Hrs Hn]]]]].
      exists i, rs, []. repeat (split; [assumption|]). split; [left; reflexivity|]. rewrite Hn, app_nil_r. reflexivity.
    + assert (Eg : fsfx (c_spec c) = Some gz_sfx \/ fsfx (c_spec c) <> Some gz_sfx).
      { destruct (fsfx (c_spec c)) as [s|]; [|right; discriminate].
        destruct (beq_spec s gz_sfx) as [->|N]; [left; reflexivity | right; congruence]. }
      destruct Eg as [Eg|Eg].
      * rewrite (fam_q_qf c _ _ 0%Z), qf_gz_is_plain, <- (fam_q_qf c _ _ 0%Z) in H by exact Eg.
        apply fam_q_plain_iff in H. destruct H as [i [rs [Hp [Hnd [Hrs Hn]]]]].
        exists i, rs, []. repeat (split; [assumption|]). split; [left; reflexivity|]. rewrite Hn, app_nil_r. reflexivity.
      * rewrite (fam_q_qf c _ _ 0%Z) in H. apply (qf_gz_spec _ _ _ _ _ Eg) in H.
        destruct H as [i [rs [Hf [Hnd [Hrs [_ Hn]]]]]]. apply ts_filter_iff in Hf.
        exists i, rs, dot_gz. repeat (split; [assumption|]). split; [right; reflexivity | exact Hn].
    + destruct (strip_suffix dot_gz n) as [m|] eqn:E; [|discriminate]. apply strip_suffix_iff in E. subst n.
      apply fam_q_plain_iff in H. destruct H as [i [rs [Hp [Hnd [Hrs Hn]]]]].
      exists i, rs, dot_gz. repeat (split; [assumption|]). split; [right; reflexivity|]. rewrite Hn, <- !app_assoc. reflexivity.
  - intros [i [rs [gz [Hp [Hnd [Hrs [[->| ->] Hn]]]]]]].
    + left. left. apply fam_q_plain_iff. exists i, rs. repeat (split; [assumption|]). rewrite Hn, app_nil_r. reflexivity.
    + right. replace n with ((under (fixed0 c) ++ i ++ rs ++ sfxs (c_spec c)) ++ dot_gz) by (rewrite Hn, <- !app_assoc; reflexivity).
      rewrite strip_suffix_app. apply fam_q_plain_iff. exists i, rs. repeat (split; [assumption|]). reflexivity.
Qed.
Print Assumptions tsd_member_iff.

Theorem ts_member_iff c n : ts_member c n = true <-> n = cname c \/ ts_pattern c n.
Proof.
  unfold ts_member. rewrite orb_true_iff, tsd_member_iff. split.
  - intros [H|H]; [right; exact H | left; apply beq_eq; exact H].
  - intros [->|H]; [right; apply beq_refl | left; exact H].
Qed.
Print Assumptions ts_member_iff.

(* ------------------------------------------------------------------ the infix of the other naming is foreign *)
Lemma take_digits_rest max : forall s acc a r,
  TsFormat.take_digits max s acc = (a, r) -> all_digits s = true -> all_digits r = true.
Proof.
  induction max as [|m IH]; intros s acc a r H Hs; cbn [TsFormat.take_digits] in H.
  - injection H as _ <-. exact Hs.
  - destruct s as [|x s']; [injection H as _ <-; reflexivity|].
    cbn [all_digits] in Hs. apply andb_true_iff in Hs. destruct Hs as [Hx Hs']. rewrite Hx in H.
    eapply IH; eassumption.
Qed.

Lemma scan_number_rest max s v r : scan_number max s = Some (v, r) -> all_digits s = true -> all_digits r = true.
Proof.
  unfold scan_number. destruct (TsFormat.take_digits max s []) as [a r'] eqn:E. destruct a; [discriminate|].
  intros H. injection H as _ <-. eapply take_digits_rest. exact E.
Qed.

Lemma digit_cases d : is_digit d = true ->
  (d = 48 \/ d = 49 \/ d = 50 \/ d = 51 \/ d = 52 \/ d = 53 \/ d = 54 \/ d = 55 \/ d = 56 \/ d = 57)%N.
Proof. unfold is_digit. lia. Qed.

Lemma parse_year_digits ds p s' p' : all_digits ds = true -> parse_item TY ds p = Some (s', p') -> all_digits s' = true.
Proof.
  intros Hd. destruct ds as [|d ds']; [cbn; discriminate|].
  pose proof Hd as Hall. cbn [all_digits] in Hd. apply andb_true_iff in Hd. destruct Hd as [Hx Hs].
  assert (E : parse_item TY (d :: ds') p =
              match scan_number 4 (d :: ds') with
              | Some (v, r') => match set_field (py p) v with
                      | Some y => Some (r', {| py := y; pmo := pmo p; pd := pd p; ph := ph p; pmi := pmi p; ps := ps p |})
                      | None => None end
              | None => None end).
  { destruct (digit_cases d Hx) as [->|[->|[->|[->|[->|[->|[->|[->|[->| ->]]]]]]]]]; reflexivity. }
  rewrite E. destruct (scan_number 4 (d :: ds')) as [[v r']|] eqn:Es; [|discriminate].
  destruct (set_field (py p) v); [|discriminate]. intros H. injection H as <- _.
  eapply scan_number_rest; eassumption.
Qed.

(* "r" and digits is no time stamp: after (at most four digits of) the year the parser wants "-" *)
Theorem parse_number_infix ds : all_digits ds = true -> parse_ts_local std_fmt (r_char :: ds) = None.
Proof.
  intros Hd. unfold parse_ts_local.
  assert (E : parse_items std_fmt (r_char :: ds) parsed0 = None); [|rewrite E; reflexivity].
  unfold std_fmt. cbn [parse_items]. change (parse_item (TLit 114) (r_char :: ds) parsed0) with (Some (ds, parsed0)).
  cbv iota beta.
  destruct (parse_item TY ds parsed0) as [[s' p']|] eqn:E1; [|reflexivity].
  pose proof (parse_year_digits _ _ _ _ Hd E1) as X.
  destruct s' as [|x r]; [reflexivity|]. cbn [parse_item].
  destruct (N.eqb_spec x 45) as [->|N]; [cbn in X; discriminate | reflexivity].
Qed.

Lemma upto_dot_infix i tail : no_dot i -> (tail = [] \/ exists z, tail = dot :: z) -> upto_dot (i ++ tail) = i.
Proof.
  intros Hnd Ht. unfold upto_dot. destruct Ht as [->|[z ->]].
  - rewrite app_nil_r. apply find_byte_none in Hnd. rewrite Hnd. reflexivity.
  - rewrite find_byte_app by exact Hnd. apply firstn_length_app.
Qed.

Lemma sfxs_shape sp : sfxs sp = [] \/ exists s, sfxs sp = dot :: s.
Proof. unfold sfxs. destruct (fsfx sp) as [s|]; [right; eexists; reflexivity | left; reflexivity]. Qed.

(* a name of the number pattern and a name of the time-stamp pattern are never the same name *)
Theorem patterns_disjoint c n : num_pattern c n -> ts_pattern c n -> False.
Proof.
  intros [ds [rs [gz [Hne [Hd [Hrs [Hgz Hn]]]]]]] [i [rs' [gz' [Hp [Hnd [Hrs' [Hgz' Hn']]]]]]].
  rewrite Hn in Hn'. apply under_app_inv in Hn'.
  assert (E : upto_dot ((r_char :: ds) ++ rs ++ sfxs (c_spec c) ++ gz) = upto_dot (i ++ rs' ++ sfxs (c_spec c) ++ gz')).
  { cbn [app]. rewrite Hn'. reflexivity. }
  rewrite upto_dot_infix in E;
    [|apply digits_no_dot; exact Hd | apply pattern_tail_dot; [exact Hrs | apply sfxs_shape | destruct Hgz as [->|[-> _]]; auto]].
  rewrite upto_dot_infix in E; [|exact Hnd | apply pattern_tail_dot; [exact Hrs' | apply sfxs_shape | exact Hgz']].
  subst i. unfold canonical_ts in Hp. rewrite (parse_number_infix ds Hd) in Hp. discriminate.
Qed.

Lemma cname_not_num_pattern c : ~ num_pattern c (cname c).
Proof.
  intros [ds [rs [gz [Hne [Hd [_ [_ Hn]]]]]]]. rewrite cname_shape in Hn. apply under_app_inv in Hn.
  destruct ds as [|d ds]; [congruence|]. unfold cur_infix in Hn. cbn [app] in Hn. injection Hn as Hn _. subst d.
  cbn in Hd. discriminate.
Qed.

Lemma cname_not_ts_pattern c : ~ ts_pattern c (cname c).
Proof.
  intros [i [rs [gz [Hp [Hnd [Hrs [Hgz Hn]]]]]]]. rewrite cname_shape in Hn. apply under_app_inv in Hn.
  assert (E : upto_dot (cur_infix ++ [] ++ sfxs (c_spec c) ++ []) = upto_dot (i ++ rs ++ sfxs (c_spec c) ++ gz)).
  { cbn [app]. rewrite app_nil_r, Hn. reflexivity. }
  rewrite upto_dot_infix in E;
    [|intros I; vm_compute in I; intuition discriminate
     |apply pattern_tail_dot; [left; reflexivity | apply sfxs_shape | left; reflexivity]].
  rewrite upto_dot_infix in E; [|exact Hnd | apply pattern_tail_dot; [exact Hrs | apply sfxs_shape | exact Hgz]].
  subst i. vm_compute in Hp. discriminate.
Qed.

(* the files of a number naming (rCURRENT aside, which Timestamps naming uses, too) are foreign for a logger with a
   time-stamp naming, and the files of a time-stamp naming are foreign for a logger with a number naming - whatever
   the configurations have in common (the theorems compare the patterns of ONE configuration c: same name parts, same
   suffix) *)
Theorem number_files_foreign_ts c n : numd_member c n = true -> ts_member c n = false.
Proof.
  intros H. apply numd_member_iff in H. destruct (ts_member c n) eqn:E; [exfalso | reflexivity].
  apply ts_member_iff in E. destruct E as [->|E]; [exact (cname_not_num_pattern c H) | exact (patterns_disjoint c n H E)].
Qed.
Print Assumptions number_files_foreign_ts.

Theorem ts_files_foreign_number c n : tsd_member c n = true -> num_member c n = false.
Proof.
  intros H. apply tsd_member_iff in H. destruct (num_member c n) eqn:E; [exfalso | reflexivity].
  apply num_member_iff in E. destruct E as [->|E]; [exact (cname_not_ts_pattern c H) | exact (patterns_disjoint c n E H)].
Qed.
Print Assumptions ts_files_foreign_number.

(* ------------------------------------------------------------------ examples *)
Import String.StringSyntax.
Open Scope string_scope.

(* (A) what the number filter took for numbered log files before its repair is rejected by the member tests of the number
   namings (ex_c: Numbers, exdf_c: NumbersDirect; both a_<infix>.log) ... *)
Example former_numbered_files_rejected :
  let names := [bs "a_r1x.log"; bs "a_r1backup.log"; bs "a_r00001x.log"; bs "a_r2024-02-29_23-59-58.log";
                bs "a_r1x.log.gz"; bs "a_r00001x.restart-0000.log"] in
  List.map (num_member ex_c) names = List.map (fun _ => false) names
  /\ List.map (numd_member exdf_c) names = List.map (fun _ => false) names.
Proof. vm_compute. split; reflexivity. Qed.

(* ... by the theorem, too: something that is not a digit stands between "a_r" and the first dot *)
Example former_numbered_files_rejected_thm : num_member ex_c (bs "a_r1backup.log") = false.
Proof.
  change (bs "a_r1backup.log") with (under (fixed0 ex_c) ++ r_char :: bs "1backup.log").
  apply num_foreign_non_digit; [right; vm_compute; reflexivity | vm_compute; discriminate].
Qed.

(* (B) the files of the number namings, and everything that merely looks like them, are rejected by the member tests of
   the time-stamp namings (extd_c: TimestampsDirect, extf_c: Timestamps; both a_<infix>.log) *)
Example number_infixes_rejected_ts :
  let names := [bs "a_r00001.log"; bs "a_r00001.log.gz"; bs "a_r1.log"; bs "a_r1x.log"; bs "a_r1backup.log"; bs "a_r00001x.log";
                bs "a_r00001.restart-0000.log"; bs "a_r2030-01-01_00-00-00x.log"; bs "a_r1970-01-01.log"] in
  List.map (tsd_member extd_c) names = List.map (fun _ => false) names
  /\ List.map (ts_member extf_c) names = List.map (fun _ => false) names.
Proof. vm_compute. split; reflexivity. Qed.

(* ... by the theorem: a member of the number family is foreign for the time-stamp naming *)
Example number_infixes_rejected_ts_thm : ts_member extf_c (bs "a_r00001.log.gz") = false.
Proof. apply number_files_foreign_ts. vm_compute. reflexivity. Qed.

(* the patterns are inhabited (non-vacuity of the characterisations) *)
Example num_pattern_instance : num_pattern ex_c (bs "a_r00017.restart-0003.log.gz").
Proof. apply numd_member_iff. vm_compute. reflexivity. Qed.
Example ts_pattern_instance : ts_pattern extd_c (bs "a_r2024-02-29_23-59-58.restart-0003.log.gz").
Proof. apply tsd_member_iff. vm_compute. reflexivity. Qed.

(* What is still NOT foreign although no logger of this configuration wrote it: names that do follow the pattern.
   - number namings: a number of any length and value - one digit ("a_r1.log", which the old filter rejected for being
     too short), more than five digits, an index that the logger has not reached -, archives and restart siblings of
     such names, and for Numbers naming a stranger's a_rCURRENT.log (NumForeign.short_number_is_member: a_r1.log counts as
     index 1, the numbering goes on at 2);
   - time-stamp namings: a stranger's a_r1999-01-01_00-00-00.log and a_r2024-02-29_23-59-60.log (a leap second, which
     the format writes like this). What only chrono's lenient parser reads as a time stamp is FOREIGN since the repair of the
     time-stamp filter: a_r1970-1-1_0-0-0.log (no leading zeros), "a_r 1970-01-01_00-00-00.log" (white space),
     a_r+1970-01-01_00-00-00.log (a sign); for Timestamps naming a stranger's a_rCURRENT.log
     (TsdForeign.member_files_td, TsForeign.member_files_t: what the model does with them).
   This is legitimate: property C14 is about names that do NOT follow the logger's pattern. *)
Example still_members :
  List.map (num_member ex_c) [bs "a_r1.log"; bs "a_r000000000007.log"; bs "a_r99999.log"; bs "a_r1.log.gz";
                              bs "a_r1.restart-0000.log"; bs "a_rCURRENT.log"]
  = [true; true; true; true; true; true]
  /\ numd_member exdf_c (bs "a_rCURRENT.log") = false
  /\ List.map (tsd_member extd_c) [bs "a_r1999-01-01_00-00-00.log"; bs "a_r1970-1-1_0-0-0.log";
                                   bs "a_r 1970-01-01_00-00-00.log"; bs "a_r+1970-01-01_00-00-00.log";
                                   bs "a_r2024-02-29_23-59-60.log"; bs "a_r1999-01-01_00-00-00.restart-0000.log.gz"]
     = [true; false; false; false; true; true]
  /\ ts_member extf_c (bs "a_rCURRENT.log") = true /\ tsd_member extd_c (bs "a_rCURRENT.log") = false
  (* no date: 2023 was no leap year, there is no month 13 *)
  /\ tsd_member extd_c (bs "a_r2023-02-29_23-59-58.log") = false /\ tsd_member extd_c (bs "a_r2023-13-01_00-00-00.log") = false.
Proof. vm_compute. repeat split; reflexivity. Qed.
