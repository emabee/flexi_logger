(* NumbersDirect naming with a cleanup strategy: "the cleanup keeps exactly the newest files, compresses losslessly and
   spares the file that is being written", end to end, for every history  OStart c :: ops ++ [OStop]  of basic operations
   from the empty directory.  Parts: NumDCleanupStep.v (the effective limits klimd, one cleanup), NumDCleanupRun.v
   (invariant, rotation, run; theorem numbersdirect_cleanup_stream).  Here: the properties spelled out
   (numbersdirect_cleanup), the relation to the run without cleanup (numbersdirect_cleanup_vs_never), no operation
   fails or panics (numbersdirect_cleanup_no_panic), the version for a size criterion, examples, the counterexamples
   that show that the condition on the suffix is necessary, and the cases index 100000 / empty fixed name part, which need
   no condition.

   WHAT THE MODEL DOES (determined by vm_compute, see the examples at the end; L = number of closed files, the file
   being written is r<L>):  there is no rCURRENT, the file being written is the first entry of the listing that the
   cleanup works on, and it COUNTS for the first limit; cleanup_impl raises a first limit of 0 to 1 for the direct
   namings; besides (repaired code) the cleanup is told which file it is and skips it - see CurrentSpared.v.  So, with (n, m) = klimd k = (max 1 n0, m) for KeepLogAndCompressedFiles(n0, m):
     - the plain files are r<L+1-n> .. r<L>: the current file and the newest n - 1 closed files (NOT n closed files as with
       Numbers naming: KeepLogFiles(2) keeps rCURRENT + 2 closed files there, r<L> + 1 closed file here);
     - the archives are the m closed files before them;
     - KeepLogFiles(0), KeepCompressedFiles(m), KeepLogAndCompressedFiles(0, m) never compress or remove the current
       file: they behave like first limit 1. *)
Require Import FL.Base.Bytes FL.Fs.Fs FL.Names.FileSpec FL.Flw.Model FL.Flw.NumInv FL.Flw.Run FL.Flw.NumRun
  FL.Oracles.O_Flw FL.Flw.NumTheorems FL.Flw.CleanupFacts FL.Flw.NumKillRestart FL.Flw.NumDInv FL.Flw.NumDRun
  FL.Flw.NumCleanupNames FL.Flw.NumCleanupStep FL.Flw.NumCleanupRun FL.Flw.NumCleanup FL.Flw.NumDCleanupStep
  FL.Flw.NumDCleanupRun.
From Coq Require Import ZifyN ZifyNat ZifyBool.
Open Scope nat_scope.

(* ------------------------------------------------------------------ the final directory, name by name *)
Lemma dkview_names c f closed cur lo mid : dkreader_view c f closed cur lo mid ->
  forall x, (exists j, lookup f x = Some j) <->
    (exists i, mid <= i <= length closed /\ x = rname c i) \/ (exists i, lo <= i < mid /\ x = gname c i).
Proof.
  intros [[Hle Hnd Hp Ha Hon] [Hmid Hnc]] x. rewrite len_snoc in Hle, Hp, Hon. split.
  - intros [j Lj]. destruct (Hon _ _ Lj) as [->|[(i & Hi & ->)|(i & Hi & ->)]].
    + congruence.
    + left. exists i. split; [lia | reflexivity].
    + right. exists i. split; [lia | reflexivity].
  - intros [(i & Hi & ->)|(i & Hi & ->)].
    + destruct (Hp i ltac:(lia)) as (j & Lj & _). eauto.
    + destruct (Ha i Hi) as (j & Lj & _). eauto.
Qed.

(* ------------------------------------------------------------------ 1. THE PROPERTIES *)
(* (n, m) = klimd k: n = number of plain files kept, the file being written INCLUDED (n >= 1); m = number of files kept
   as archives.  closed, cur: the reader's view that the run would leave without cleanup (numbersdirect_cleanup_vs_never):
   the contents of r<0> .. r<L-1> and of the file being written, r<L>. *)
Theorem numbersdirect_cleanup c crit k n m t0 off ops closed cur :
  numdkcfg c crit k -> klimd k = Some (n, m) -> Forall basic_op ops ->
  sfx_ok (c_spec c) ->
  a_run None ops (snd (run (fst (step (sys0 t0 off) (OStart c))) ops)) = Some (closed, cur) ->
  let f := wfs (s_w (fst (run (sys0 t0 off) (OStart c :: ops ++ [OStop])))) in
  let L := length closed in let lo := S L - (n + m) in let mid := S L - n in
  (* what was written *)
  concat closed ++ cur = written ops
  (* exactly these names exist, each once: the current file r<L> is among the plain ones; there is no rCURRENT *)
  /\ (forall x, (exists j, lookup f x = Some j) <->
        (exists i, mid <= i <= L /\ x = rname c i) \/ (exists i, lo <= i < mid /\ x = gname c i))
  /\ NoDup (dir_names f)
  /\ lookup f (cname c) = None
  (* (a) the limits: at most n plain files, the current one included (so at most n - 1 closed ones), at most m archives;
         the next cleanup would see them like this *)
  /\ 1 <= n /\ mid <= L /\ S L - mid <= n /\ mid - lo <= m
  /\ (forall off', list_log_gz off' (c_spec c) (fixed0 c) f IFNum = Some (listing c lo mid (S L)))
  /\ (forall off', get_highest_index off' (c_spec c) (fixed0 c) f <> None)
  (* the newest n - 1 closed files are there as they were closed *)
  /\ (forall i, mid <= i < L -> lookup f (gname c i) = None /\
        exists fl, file_of f (rname c i) = Some fl /\ fdata fl = nth i closed [] /\ fgz fl = 0%N /\ fdir fl = false)
  (* (c) the next m are complete archives of what the file held when it was closed; the original is gone *)
  /\ (forall i, lo <= i < mid -> lookup f (rname c i) = None /\
        exists fl, file_of f (gname c i) = Some fl /\ fdata fl = nth i closed [] /\ fgz fl = 1%N /\ fdir fl = false)
  (* older files are gone *)
  /\ (forall i, i < lo -> lookup f (rname c i) = None /\ lookup f (gname c i) = None)
  (* (b) the survivors, read by index (the last one is the current file): a suffix of what was written *)
  /\ written ops = concat (firstn lo closed) ++ concat (map (fun i => data_at f (entry c mid i)) (seq lo (S L - lo)))
  (* (d) the current file is never compressed or removed: it is plain and holds what it would hold without cleanup *)
  /\ lookup f (gname c L) = None
  /\ (exists fl, file_of f (rname c L) = Some fl /\ fdata fl = cur /\ fgz fl = 0%N /\ fdir fl = false).
Proof.
  intros Hcfg Hk Hb Hsfx Ea f L lo mid.
  pose proof (numbersdirect_cleanup_stream c crit k t0 off ops Hcfg Hb) as T. cbv zeta in T. rewrite Ea in T. fold f in T.
  destruct T as [Fl [V _]]. { unfold dside. rewrite Hk. exact Hsfx. }
  cbn [flat] in Fl. unfold d_lo, d_mid in V. rewrite Hk in V. fold L lo mid in V.
  pose proof (klimd_pos _ _ _ Hk) as Hn.
  pose proof (dkview_names _ _ _ _ _ _ V) as Names. fold L in Names.
  destruct V as [KD [Hmid Hnc]]. pose proof KD as [Hle Hnd _ _ _]. rewrite len_snoc in Hle. fold L in Hle, Hmid.
  destruct (kdir_by_index _ _ _ _ _ KD) as (P1 & P2 & P3 & Data).
  set (all := closed ++ [cur]) in *.
  assert (Elen : length all = S L) by (unfold all; apply len_snoc). rewrite Elen in P1, Data.
  assert (Nth1 : forall i, i < L -> nth i all [] = nth i closed []) by (intros i Hi; unfold all; apply app_nth1; exact Hi).
  assert (NthL : nth L all [] = cur) by (unfold all, L; rewrite app_nth2, Nat.sub_diag by lia; reflexivity).
  assert (LG : forall off', list_log_gz off' (c_spec c) (fixed0 c) f IFNum = Some (listing c lo mid (S L))).
  { intros off'. apply list_log_gz_numbers; [exact Hsfx|]. rewrite <- Elen. apply kdir_shape. exact KD. }
  split; [exact Fl|]. split; [exact Names|]. split; [exact Hnd|]. split; [exact Hnc|].
  split; [exact Hn|]. split; [exact Hmid|]. split; [unfold mid; lia|]. split; [unfold lo, mid; lia|].
  split; [exact LG|].
  split. { intros off'. unfold get_highest_index. rewrite LG. discriminate. }
  split. { intros i Hi. rewrite <- Nth1 by lia. apply P1. lia. }
  split. { intros i Hi. rewrite <- Nth1 by lia. apply P2. exact Hi. }
  split; [exact P3|].
  split.
  { rewrite (map_seq_skipn (fun i => data_at f (entry c mid i)) all [] (S L - lo) lo); [|rewrite Elen; unfold lo; lia | rewrite Elen; exact Data].
    replace (firstn lo closed) with (firstn lo all) by (unfold all; rewrite firstn_app; replace (lo - length closed) with 0 by (fold L; lia); cbn [firstn]; apply app_nil_r).
    rewrite <- concat_app, firstn_skipn. unfold all. rewrite concat_app. cbn [concat]. rewrite app_nil_r. symmetry. exact Fl. }
  rewrite <- NthL. apply P1. lia.
Qed.
Print Assumptions numbersdirect_cleanup.

(* KNever: everything stays - the reader's view of NumDRun.v, without side conditions *)
Lemma dkview_direct c f closed cur : dkreader_view c f closed cur 0 0 -> direct_view c f (closed ++ [cur]).
Proof.
  intros V. pose proof (dkview_names _ _ _ _ _ _ V) as Names. destruct V as [[Hle Hnd Hp Ha Hon] [Hmid Hnc]]. split.
  - intros i Hi. apply Hp. lia.
  - intros x j Lx. destruct (proj1 (Names x) (ex_intro _ j Lx)) as [(i & Hi & ->)|(i & Hi & _)]; [|lia].
    exists i. rewrite len_snoc. split; [lia | reflexivity].
Qed.

Corollary numbersdirect_cleanup_never c crit t0 off ops :
  numdkcfg c crit KNever -> Forall basic_op ops ->
  match a_run None ops (snd (run (fst (step (sys0 t0 off) (OStart c))) ops)) with
  | None => names (wfs (s_w (fst (run (sys0 t0 off) (OStart c :: ops ++ [OStop]))))) = []
  | Some (closed, cur) => direct_view c (wfs (s_w (fst (run (sys0 t0 off) (OStart c :: ops ++ [OStop]))))) (closed ++ [cur])
  end.
Proof.
  intros Hcfg Hb. pose proof (numbersdirect_cleanup_stream c crit KNever t0 off ops Hcfg Hb) as T. cbv zeta in T.
  destruct T as [_ [V _]]; [exact I|].
  destruct (a_run None ops (snd (run (fst (step (sys0 t0 off) (OStart c))) ops))) as [[closed cur]|]; [|exact V].
  apply dkview_direct. exact V.
Qed.

(* ------------------------------------------------------------------ 2. THE SAME HISTORY WITHOUT CLEANUP *)
(* The rotation flags - and with them the view (closed, cur) - do not depend on the cleanup strategy: they are decided by
   the clock and the rotation state alone (trace_ok).  So the view of the run with cleanup IS what the same history
   leaves in the directory when the strategy is KNever. *)
Lemma step_trace_dk c crit k : numdkcfg c crit k -> dside c k 0 -> forall x a o, RelDK c crit k x a -> basic_op o ->
  let '(x1, ob) := step x o in RelDK c crit k x1 (a_step a o (rot_of ob)) /\ trace_ok crit x x1 o ob.
Proof.
  intros Hcfg Hs x a o R Ho. pose proof (step_rel_dk0 c crit k x a o Hcfg Hs R Ho) as S.
  destruct (step x o) as [x1 ob]. split; apply S.
Qed.

Definition never_cfg_d (c : config) (crit : criterion) : config :=
  {| c_spec := c_spec c; c_append := c_append c; c_cap := c_cap c; c_rot := Some (crit, NNumbersDirect, KNever); c_utc := c_utc c;
     c_symlink := c_symlink c; c_bg := c_bg c; c_async := c_async c; c_start := c_start c |}.

Lemma never_cfg_d_ok c crit k : numdkcfg c crit k -> numdcfg (never_cfg_d c crit) crit.
Proof. intros (_ & A & B & C & _). repeat split; assumption. Qed.

(* the configuration of the comparison run is one of NumDInv.v / NumDTheorems.v (numdcfg): the run without cleanup leaves
   r<0> .. r<L> with the contents closed ++ [cur] (direct_view), or nothing *)
Theorem numbersdirect_cleanup_vs_never c crit k t0 off ops :
  numdkcfg c crit k -> Forall basic_op ops ->
  let a := a_run None ops (snd (run (fst (step (sys0 t0 off) (OStart c))) ops)) in
  dside c k (nclosed a) ->
  let f0 := wfs (s_w (fst (run (sys0 t0 off) (OStart (never_cfg_d c crit) :: ops ++ [OStop])))) in
  numdcfg (never_cfg_d c crit) crit
  /\ match a with
     | None => names f0 = []
     | Some (closed, cur) => direct_view c f0 (closed ++ [cur])
     end.
Proof.
  intros Hcfg Hb a Hside f0. split; [exact (never_cfg_d_ok c crit k Hcfg)|].
  assert (Hcfg0 : numdkcfg (never_cfg_d c crit) crit KNever) by (destruct Hcfg as (_ & ? & ? & ? & ?); repeat split; assumption).
  pose proof (numbersdirect_cleanup_never (never_cfg_d c crit) crit t0 off ops Hcfg0 Hb) as T. fold f0 in T.
  assert (Ea : a_run None ops (snd (run (fst (step (sys0 t0 off) (OStart (never_cfg_d c crit)))) ops)) = a).
  { apply (runs_agree_of_steps _ _ crit (step_trace_dk c crit k Hcfg Hside) (step_trace_dk _ crit KNever Hcfg0 I));
      auto; apply start_rel_dk. }
  rewrite Ea in T. destruct a as [[closed cur]|]; exact T.
Qed.
Print Assumptions numbersdirect_cleanup_vs_never.

(* ------------------------------------------------------------------ 3. NO OPERATION FAILS OR PANICS *)
Theorem numbersdirect_cleanup_no_panic c crit k t0 off ops :
  numdkcfg c crit k -> Forall basic_op ops ->
  dside c k (nclosed (a_run None ops (snd (run (fst (step (sys0 t0 off) (OStart c))) ops)))) ->
  Forall obs_ok (snd (run (sys0 t0 off) (OStart c :: ops ++ [OStop]))).
Proof.
  intros Hcfg Hb Hside. pose proof (numbersdirect_cleanup_stream c crit k t0 off ops Hcfg Hb) as T. cbv zeta in T.
  destruct (T Hside) as [_ [_ K]]. exact K.
Qed.
Print Assumptions numbersdirect_cleanup_no_panic.

(* ------------------------------------------------------------------ size criterion: the view is a function of the operations *)
Lemma run_size_dk' c k m : numdkcfg c (CSize m) k -> forall ops x a, RelDK c (CSize m) k x a -> Forall basic_op ops ->
  dside c k (nclosed (s_run m a ops)) ->
  a_run a ops (snd (run x ops)) = s_run m a ops.
Proof. intros Hcfg ops x a R Hb Hside. exact (run_size_dk0 c k m Hcfg Hside ops x a R Hb). Qed.

(* C08 + cleanup: the closed files and the current file are the greedy partition of what was written (the side condition
   is a condition on the operations alone); the directory holds the current file and the newest n - 1 closed files plain,
   the next m as archives *)
Theorem numbersdirect_cleanup_partition c k m t0 off ops :
  numdkcfg c (CSize m) k -> Forall basic_op ops ->
  dside c k (nclosed (s_run m None ops)) ->
  let f := wfs (s_w (fst (run (sys0 t0 off) (OStart c :: ops ++ [OStop])))) in
  match s_run m None ops with
  | None => names f = []
  | Some (closed, cur) =>
    closed ++ [cur] = expected_files m None (items false ops)
    /\ dkreader_view c f closed cur (d_lo k (length closed)) (d_mid k (length closed))
  end.
Proof.
  intros Hcfg Hb Hside f.
  pose proof (start_rel_dk c (CSize m) k t0 off) as R0.
  pose proof (run_size_dk' c k m Hcfg ops _ None R0 Hb Hside) as Es.
  pose proof (numbersdirect_cleanup_stream c (CSize m) k t0 off ops Hcfg Hb) as T. cbv zeta in T. rewrite Es in T.
  destruct (T Hside) as [_ [V _]]. fold f in V.
  pose proof (s_run_none m ops Hb) as P.
  destruct (s_run m None ops) as [[closed cur]|]; [|exact V]. split; [exact P | exact V].
Qed.
Print Assumptions numbersdirect_cleanup_partition.

(* ------------------------------------------------------------------ examples *)
Import String.StringSyntax.
Delimit Scope string_scope with string.

Definition exd_kcfg (k : cleanup) (sfx : option bytes) : config :=
  {| c_spec := {| fbase := bs "a"%string; fdisc := None; fts := false; fsfx := sfx |};
     c_append := false; c_cap := None; c_rot := Some (CSize 3, NNumbersDirect, k); c_utc := false; c_symlink := false;
     c_bg := false; c_async := false; c_start := None |}.
(* ex_ops (NumCleanup.v): six records of five bytes, limit 3: a rotation before each record but the first.
   Without cleanup: r00000 .. r00005, the last one is the file being written *)
Definition exd_final (k : cleanup) (sfx : option bytes) : obs :=
  snapshot (s_w (fst (run (sys0 0 0) (OStart (exd_kcfg k sfx) :: ex_ops ++ [OStop])))).
Definition rec5 (i : N) : bytes := bs "abcd"%string ++ [i].

Example exd_never :
  exd_final KNever log_sfx =
  ObsSnap [(bs "a_r00000.log"%string, 0%N, rec5 0); (bs "a_r00001.log"%string, 0%N, rec5 1);
           (bs "a_r00002.log"%string, 0%N, rec5 2); (bs "a_r00003.log"%string, 0%N, rec5 3);
           (bs "a_r00004.log"%string, 0%N, rec5 4); (bs "a_r00005.log"%string, 0%N, rec5 5)] None [].
Proof. vm_compute. reflexivity. Qed.

(* KLog 2: TWO plain files in total - the current file and ONE closed file (Numbers naming: rCURRENT and two closed
   files, ex_log_2 in NumCleanup.v) *)
Example exd_log_2 :
  exd_final (KLog 2) log_sfx =
  ObsSnap [(bs "a_r00004.log"%string, 0%N, rec5 4); (bs "a_r00005.log"%string, 0%N, rec5 5)] None [].
Proof. vm_compute. reflexivity. Qed.

(* KLog 1 and KLog 0: the current file only *)
Example exd_log_1_0 :
  exd_final (KLog 1) log_sfx = ObsSnap [(bs "a_r00005.log"%string, 0%N, rec5 5)] None []
  /\ exd_final (KLog 0) log_sfx = ObsSnap [(bs "a_r00005.log"%string, 0%N, rec5 5)] None [].
Proof. split; vm_compute; reflexivity. Qed.

(* KGz 2 = KLogGz 0 2 = KLogGz 1 2: the current file stays PLAIN (it is neither compressed nor removed although the first
   limit is 0), the two closed files before it are archives *)
Example exd_gz_2 :
  let d := ObsSnap [(bs "a_r00003.log.gz"%string, 1%N, rec5 3); (bs "a_r00004.log.gz"%string, 1%N, rec5 4);
                    (bs "a_r00005.log"%string, 0%N, rec5 5)] None [] in
  exd_final (KGz 2) log_sfx = d /\ exd_final (KLogGz 0 2) log_sfx = d /\ exd_final (KLogGz 1 2) log_sfx = d.
Proof. repeat split; vm_compute; reflexivity. Qed.

Example exd_loggz_2_2 :
  exd_final (KLogGz 2 2) log_sfx =
  ObsSnap [(bs "a_r00002.log.gz"%string, 1%N, rec5 2); (bs "a_r00003.log.gz"%string, 1%N, rec5 3);
           (bs "a_r00004.log"%string, 0%N, rec5 4); (bs "a_r00005.log"%string, 0%N, rec5 5)] None [].
Proof. vm_compute. reflexivity. Qed.

(* both limits 0: only the current file is left - it is never touched *)
Example exd_loggz_0_0 :
  exd_final (KLogGz 0 0) log_sfx = ObsSnap [(bs "a_r00005.log"%string, 0%N, rec5 5)] None []
  /\ exd_final (KGz 0) log_sfx = ObsSnap [(bs "a_r00005.log"%string, 0%N, rec5 5)] None [].
Proof. split; vm_compute; reflexivity. Qed.

(* the hypotheses of the theorems hold for this history (they are not vacuous), and the conclusion is what was computed *)
Lemma exd_numdkcfg k sfx : numdkcfg (exd_kcfg k sfx) (CSize 3) k.
Proof. repeat split. Qed.
Lemma exd_sfx_ok k : sfx_ok (c_spec (exd_kcfg k log_sfx)).
Proof. vm_compute. reflexivity. Qed.

Definition exd_closed : list bytes := map (fun i => rec5 (N.of_nat i)) (seq 0 5).

Example exd_view :
  a_run None ex_ops (snd (run (fst (step (sys0 0 0) (OStart (exd_kcfg (KLogGz 2 2) log_sfx)))) ex_ops)) = Some (exd_closed, rec5 5).
Proof. vm_compute. reflexivity. Qed.

(* numbersdirect_cleanup for KLogGz 2 2 and five rotations: L = 5, n = 2, m = 2, lo = 2, mid = 4 *)
Example exd_instance :
  let c := exd_kcfg (KLogGz 2 2) log_sfx in
  let f := wfs (s_w (fst (run (sys0 0 0) (OStart c :: ex_ops ++ [OStop])))) in
  (forall x, (exists j, lookup f x = Some j) <->
        (exists i, 4 <= i <= 5 /\ x = rname c i) \/ (exists i, 2 <= i < 4 /\ x = gname c i))
  /\ (exists fl, file_of f (rname c 4) = Some fl /\ fdata fl = rec5 4 /\ fgz fl = 0%N /\ fdir fl = false)
  /\ (exists fl, file_of f (gname c 3) = Some fl /\ fdata fl = rec5 3 /\ fgz fl = 1%N /\ fdir fl = false)
  /\ lookup f (rname c 3) = None /\ lookup f (rname c 1) = None /\ lookup f (gname c 1) = None
  /\ lookup f (gname c 5) = None
  /\ (exists fl, file_of f (rname c 5) = Some fl /\ fdata fl = rec5 5 /\ fgz fl = 0%N /\ fdir fl = false).
Proof.
  intros c f.
  pose proof (numbersdirect_cleanup c (CSize 3) (KLogGz 2 2) 2 2 0 0 ex_ops exd_closed (rec5 5)
                (exd_numdkcfg _ _) eq_refl ex_ops_basic (exd_sfx_ok _) exd_view) as T.
  cbv zeta in T. fold f in T. change (length exd_closed) with 5 in T. cbn [Nat.sub Nat.add] in T.
  destruct T as (_ & Names & _ & _ & _ & _ & _ & _ & _ & _ & Pl & Ar & Old & _ & NoG & Cur).
  split; [exact Names|].
  split; [exact (proj2 (Pl 4 ltac:(lia)))|].
  split; [exact (proj2 (Ar 3 ltac:(lia)))|].
  split; [exact (proj1 (Ar 3 ltac:(lia)))|].
  split; [exact (proj1 (Old 1 ltac:(lia)))|].
  split; [exact (proj2 (Old 1 ltac:(lia)))|].
  split; [exact NoG | exact Cur].
Qed.

(* the comparison run of numbersdirect_cleanup_vs_never for this history: r00000 .. r00005 *)
Example exd_vs_never_instance :
  let c := exd_kcfg (KLogGz 2 2) log_sfx in
  direct_view c (wfs (s_w (fst (run (sys0 0 0) (OStart (never_cfg_d c (CSize 3)) :: ex_ops ++ [OStop]))))) (exd_closed ++ [rec5 5]).
Proof.
  intros c. subst c.
  pose proof (numbersdirect_cleanup_vs_never (exd_kcfg (KLogGz 2 2) log_sfx) (CSize 3) (KLogGz 2 2) 0 0 ex_ops (exd_numdkcfg _ _) ex_ops_basic) as T.
  cbv zeta in T. rewrite exd_view in T. apply T. exact (exd_sfx_ok _).
Qed.

Example exd_no_panic_instance :
  Forall obs_ok (snd (run (sys0 0 0) (OStart (exd_kcfg (KGz 2) log_sfx) :: ex_ops ++ [OStop]))).
Proof.
  apply (numbersdirect_cleanup_no_panic _ (CSize 3) (KGz 2)); [apply exd_numdkcfg | exact ex_ops_basic|].
  exact (exd_sfx_ok _).
Qed.

(* a history with buffering, append, flushes, triggers (also before the first record), clock ticks and an age-or-size
   criterion *)
Definition exd_c2 : config :=
  {| c_spec := {| fbase := bs "srv"%string; fdisc := Some (bs "a1"%string); fts := false; fsfx := None |};
     c_append := true; c_cap := Some 4; c_rot := Some (CAgeOrSize ADay 6, NNumbersDirect, KLogGz 1 1); c_utc := false; c_symlink := false;
     c_bg := false; c_async := false; c_start := None |}.
Definition exd_ops2 : list op :=
  [OTrigger; OWrite (bs "abcd"%string); OTick 3; OWrite (bs "ef"%string); OFlush; OTrigger; OPlain (bs "g"%string); OSnap;
   OTick 90000; OWrite (bs "hi"%string); OWrite (bs "jklmnop"%string); OWrite (bs "q"%string); OTrigger].
Example exd2_dir :
  snapshot (s_w (fst (run (sys0 0 0) (OStart exd_c2 :: exd_ops2 ++ [OStop]))))
  = ObsSnap [(bs "srv_a1_r00003.gz"%string, 1%N, bs "q"%string); (bs "srv_a1_r00004"%string, 0%N, [])] None [].
Proof. vm_compute. reflexivity. Qed.
Example exd2_view :
  a_run None exd_ops2 (snd (run (fst (step (sys0 0 0) (OStart exd_c2))) exd_ops2))
  = Some ([bs "abcdef"%string; bs "g"%string; bs "hijklmnop"%string; bs "q"%string], []).
Proof. vm_compute. reflexivity. Qed.
Example exd2_instance :
  let f := wfs (s_w (fst (run (sys0 0 0) (OStart exd_c2 :: exd_ops2 ++ [OStop])))) in
  (forall x, (exists j, lookup f x = Some j) <-> (exists i, 4 <= i <= 4 /\ x = rname exd_c2 i) \/ (exists i, 3 <= i < 4 /\ x = gname exd_c2 i))
  /\ Forall obs_ok (snd (run (sys0 0 0) (OStart exd_c2 :: exd_ops2 ++ [OStop]))).
Proof.
  intros f. assert (Hcfg : numdkcfg exd_c2 (CAgeOrSize ADay 6) (KLogGz 1 1)) by (repeat split).
  assert (Hb : Forall basic_op exd_ops2) by (repeat constructor).
  assert (Hsfx : sfx_ok (c_spec exd_c2)) by exact I.
  split.
  - pose proof (numbersdirect_cleanup exd_c2 _ (KLogGz 1 1) 1 1 0 0 exd_ops2
                  [bs "abcdef"%string; bs "g"%string; bs "hijklmnop"%string; bs "q"%string] []
                  Hcfg eq_refl Hb Hsfx exd2_view) as T.
    cbv zeta in T. fold f in T. cbn [length Nat.sub Nat.add] in T. exact (proj1 (proj2 T)).
  - apply (numbersdirect_cleanup_no_panic _ _ (KLogGz 1 1) 0 0 exd_ops2 Hcfg Hb). rewrite exd2_view.
    exact Hsfx.
Qed.

(* ------------------------------------------------------------------ the side condition on the suffix is necessary (1, 2); no condition on the index or on the fixed name part (3, 4) *)
(* 1. The suffix "gz": every file is listed twice (as a log file and as an archive), the current file included.  With
      KLogGz 2 1 one expects the current file, one closed file plain and one archive; what is left is the current file only. *)
Example d_sfx_gz_counterexample :
  ~ sfx_ok (c_spec (exd_kcfg (KLogGz 2 1) (Some (bs "gz"%string))))
  /\ exd_final (KLogGz 2 1) (Some (bs "gz"%string)) = ObsSnap [(bs "a_r00005.gz"%string, 0%N, rec5 5)] None [].
Proof. split; [vm_compute; discriminate | vm_compute; reflexivity]. Qed.

(* 2. A suffix that ends with ".gz": the closed files are taken for archives and are never compressed; with KGz 2 the two
      files before the current one are kept PLAIN (kind 0) and there is no archive. *)
Example d_sfx_log_gz_counterexample :
  ~ sfx_ok (c_spec (exd_kcfg (KGz 2) (Some (bs "log.gz"%string))))
  /\ exd_final (KGz 2) (Some (bs "log.gz"%string)) =
     ObsSnap [(bs "a_r00003.log.gz"%string, 0%N, rec5 3); (bs "a_r00004.log.gz"%string, 0%N, rec5 4);
              (bs "a_r00005.log.gz"%string, 0%N, rec5 5)] None [].
Proof. split; [vm_compute; discriminate | vm_compute; reflexivity]. Qed.

(* 3. Index 100000.  Before the repair of the listing order the listing was sorted by name, "r100000" sorted before
      "r99999", so r99999 was taken for the file being written: KLog 1 REMOVED r100000, THE FILE THAT IS BEING WRITTEN,
      KGz 1 compressed it.  Since the repair the sort key compares the number behind the last "_r" numerically: r100000 is
      listed first and spared; KLog 1 removes the closed file r99999, KGz 1 compresses it. *)
Definition dbig_c (k : cleanup) : config := exd_kcfg k log_sfx.
Definition dbig_fs : fs :=
  mkfile (mkfile empty_fs (rname (dbig_c (KLog 1)) (N.to_nat 99999)) (bs "closed"%string) 0 10)
         (rname (dbig_c (KLog 1)) (N.to_nat 100000)) (bs "current"%string) 0 20.
Example d_index_100000_repaired :
  rname (dbig_c (KLog 1)) (N.to_nat 99999) = bs "a_r99999.log"%string
  /\ rname (dbig_c (KLog 1)) (N.to_nat 100000) = bs "a_r100000.log"%string
  /\ list_log_gz 0 (c_spec (dbig_c (KLog 1))) (fixed0 (dbig_c (KLog 1))) dbig_fs IFNum
     = Some [bs "a_r100000.log"%string; bs "a_r99999.log"%string]
  /\ (let r := cleanup_impl (dbig_c (KLog 1)) (world_of dbig_fs) (KLog 1) IFNum (Some (bs "a_r100000.log"%string)) in
      fst r = Ok tt
      /\ map (data_at (wfs (snd r))) [bs "a_r99999.log"%string; bs "a_r100000.log"%string] = [[]; bs "current"%string]
      /\ lookup (wfs (snd r)) (bs "a_r99999.log"%string) = None)
  /\ (let r := cleanup_impl (dbig_c (KGz 1)) (world_of dbig_fs) (KGz 1) IFNum (Some (bs "a_r100000.log"%string)) in
      fst r = Ok tt
      /\ lookup (wfs (snd r)) (bs "a_r99999.log"%string) = None /\ lookup (wfs (snd r)) (bs "a_r100000.log.gz"%string) = None
      /\ map (data_at (wfs (snd r))) [bs "a_r99999.log.gz"%string; bs "a_r100000.log"%string] = [bs "closed"%string; bs "current"%string]).
Proof. vm_compute. repeat split; reflexivity. Qed.

(* 4. An empty fixed name part (basename suppressed, no discriminant): the names are r<digits>.<suffix> without "_" (a
      sort key that splits at "_r" only, as the first repair of the crate did, misses them); the sort key reads the number
      behind the leading "r": r100000, the file that is being written, is listed first and spared; KLog 1 removes the
      closed file r99999, KGz 1 compresses it. *)
Definition dnofix_c (k : cleanup) : config :=
  {| c_spec := {| fbase := []; fdisc := None; fts := false; fsfx := log_sfx |};
     c_append := false; c_cap := None; c_rot := Some (CSize 3, NNumbersDirect, k); c_utc := false; c_symlink := false;
     c_bg := false; c_async := false; c_start := None |}.
Definition dnofix_fs : fs :=
  mkfile (mkfile empty_fs (rname (dnofix_c (KLog 1)) (N.to_nat 99999)) (bs "closed"%string) 0 10)
         (rname (dnofix_c (KLog 1)) (N.to_nat 100000)) (bs "current"%string) 0 20.
Example d_index_100000_empty_fixed_repaired :
  numdkcfg (dnofix_c (KLog 1)) (CSize 3) (KLog 1) /\ sfx_ok (c_spec (dnofix_c (KLog 1))) /\ fixed0 (dnofix_c (KLog 1)) = []
  /\ rname (dnofix_c (KLog 1)) (N.to_nat 99999) = bs "r99999.log"%string
  /\ rname (dnofix_c (KLog 1)) (N.to_nat 100000) = bs "r100000.log"%string
  /\ list_log_gz 0 (c_spec (dnofix_c (KLog 1))) (fixed0 (dnofix_c (KLog 1))) dnofix_fs IFNum
     = Some [bs "r100000.log"%string; bs "r99999.log"%string]
  /\ (let r := cleanup_impl (dnofix_c (KLog 1)) (world_of dnofix_fs) (KLog 1) IFNum (Some (bs "r100000.log"%string)) in
      fst r = Ok tt
      /\ map (data_at (wfs (snd r))) [bs "r99999.log"%string; bs "r100000.log"%string] = [[]; bs "current"%string]
      /\ lookup (wfs (snd r)) (bs "r99999.log"%string) = None)
  /\ (let r := cleanup_impl (dnofix_c (KGz 1)) (world_of dnofix_fs) (KGz 1) IFNum (Some (bs "r100000.log"%string)) in
      fst r = Ok tt
      /\ lookup (wfs (snd r)) (bs "r99999.log"%string) = None /\ lookup (wfs (snd r)) (bs "r100000.log.gz"%string) = None
      /\ map (data_at (wfs (snd r))) [bs "r99999.log.gz"%string; bs "r100000.log"%string] = [bs "closed"%string; bs "current"%string]).
Proof.
  split; [repeat split|]. split; [vm_compute; reflexivity|]. split; [reflexivity|].
  vm_compute. repeat split; reflexivity.
Qed.
