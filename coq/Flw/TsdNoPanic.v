(* "No operation panics, whatever the history" for TimestampsDirect naming (NoPanic.v has Numbers, NumbersDirect and Timestamps):
   under the hypotheses of timestampsdirect_stream every observation of a whole run  OStart c :: ops ++ [OStop]  is a normal
   result - ObsRes 0 _ for an operation, a snapshot for OSnap - never code 1 (error result), 2 (panic) or 3 (no writer).
   Derived from the run invariant RelTd (TsdRun.v). *)
Require Import FL.Base.Bytes FL.Base.PathName FL.Fs.Fs FL.Time.TsFormat
  FL.Names.FileSpec FL.Names.NamesFacts FL.Flw.Model FL.Flw.ModelFacts FL.Flw.NumInv FL.Flw.Run FL.Flw.RunFacts
  FL.Flw.NumRun FL.Oracles.O_Flw FL.Flw.NumTheorems FL.Flw.NumListing FL.Flw.NumRestart FL.Flw.NumKillRestart FL.Flw.NumDTheorems
  FL.Flw.TsTime FL.Flw.TsNames FL.Flw.TsInv FL.Flw.TsRun FL.Flw.TsTheorems
  FL.Flw.TsdInv FL.Flw.TsdRun FL.Flw.TsdTheorems FL.Flw.NoPanic.
Open Scope nat_scope.

(* one basic operation on a state of the invariant returns normally *)
Lemma step_rel_tsd_ok c crit e lo hi n x a o :
  tsdcfg c crit -> tag_ok c -> years_ok e lo hi -> RelTd c crit e lo n x a -> basic_op o -> tick_ok o ->
  (wnow (s_w x) <= hi)%Z -> (N.of_nat (S n) <= usize_max)%N -> obs_ok (snd (step x o)).
Proof.
  intros Hcfg T Y R Hb Htk Hhi Hmax. pose proof (step_rel_tsd_obs c crit e lo hi n x a o Hcfg T Y R Hb Htk Hhi Hmax) as S.
  destruct (step x o) as [x' ob]. destruct S as [_ [_ [_ ->]]]. cbn [snd].
  destruct o; try contradiction; try reflexivity.
Qed.

Lemma run_ok_tsd c crit e lo hi : tsdcfg c crit -> tag_ok c -> years_ok e lo hi ->
  forall ops x a n, RelTd c crit e lo n x a -> Forall basic_op ops -> Forall tick_ok ops ->
  (wnow (s_w x) + elapsed ops <= hi)%Z -> (N.of_nat (n + length ops) <= usize_max)%N ->
  Forall obs_ok (snd (run x ops)).
Proof.
  intros Hcfg T Y ops x a n R Hb Htk Hhi Hmax.
  refine (proj2 (proj2 (run_invariant (fun n x => exists a, RelTd c crit e lo n x a) obs_ok hi _ ops x n (ex_intro _ a R) Hb Htk Hhi Hmax))).
  clear - Hcfg T Y. intros n x o [a R] Ho Hto Hhi Hmax.
  pose proof (step_rel_tsd c crit e lo hi n x a o Hcfg T Y R Ho Hto Hhi Hmax) as S.
  pose proof (step_rel_tsd_ok c crit e lo hi n x a o Hcfg T Y R Ho Hto Hhi Hmax) as K.
  destruct (step x o) as [x1 ob]. destruct S as [R1 [W1 _]]. split; [exact (ex_intro _ _ R1)|]. split; [exact W1 | exact K].
Qed.

Lemma stop_ok_tsd c crit e lo n x a : tsdcfg c crit -> RelTd c crit e lo n x a -> snd (step x OStop) = ObsRes 0%N false.
Proof.
  intros Hcfg R. rewrite (step_sync_rel_tsd c crit e lo n x a OStop Hcfg R). cbn [sync_step]. destruct R as [_ [_ R]].
  destruct a as [[cl cu]|]; [destruct R as [keys [wr [roll [Es _]]]] | destruct R as [Es _]]; rewrite Es; reflexivity.
Qed.

(* THE THEOREM: hypotheses of timestampsdirect_stream *)
Theorem timestampsdirect_no_panic c crit t0 off ops :
  tsdcfg c crit -> tag_ok c -> Forall basic_op ops -> Forall tick_ok ops ->
  (0 <= t0 + ts_e c off)%Z -> (t0 + elapsed ops + ts_e c off < sec_max)%Z -> (N.of_nat (length ops) <= usize_max)%N ->
  Forall obs_ok (snd (run (sys0 t0 off) (OStart c :: ops ++ [OStop]))).
Proof.
  intros Hcfg T Hb Htk Hlo Hhi Hmax. cbn [run]. destruct (step (sys0 t0 off) (OStart c)) as [x0 ob0] eqn:E0.
  pose proof (start_rel_tsd c crit t0 off) as R0. rewrite E0 in R0. cbn [fst] in R0.
  assert (K0 : obs_ok ob0) by (cbn in E0; injection E0 as _ <-; reflexivity).
  assert (W0 : wnow (s_w x0) = t0) by (cbn in E0; injection E0 as <- _; reflexivity).
  assert (Y : years_ok (ts_e c off) t0 (t0 + elapsed ops)) by (split; assumption).
  rewrite run_app.
  pose proof (run_rel_tsd c crit _ _ _ Hcfg T Y ops x0 None 0 R0 Hb Htk ltac:(lia) ltac:(cbn [Nat.add]; exact Hmax)) as [R1 _].
  pose proof (run_ok_tsd c crit _ _ _ Hcfg T Y ops x0 None 0 R0 Hb Htk ltac:(lia) ltac:(cbn [Nat.add]; exact Hmax)) as K1.
  destruct (run x0 ops) as [x1 obs1]. cbn [fst snd] in *.
  pose proof (stop_ok_tsd c crit _ _ _ x1 _ Hcfg R1) as K2. cbn [run]. destruct (step x1 OStop) as [x2 ob2]. cbn [snd] in *.
  constructor; [exact K0|]. apply Forall_app. split; [exact K1|]. subst ob2. repeat constructor.
Qed.
Print Assumptions timestampsdirect_no_panic.

(* the shapes, position by position: ObsRes 0 _ for an operation, a snapshot for OSnap *)
Corollary timestampsdirect_no_panic_shapes c crit t0 off ops :
  tsdcfg c crit -> tag_ok c -> Forall basic_op ops -> Forall tick_ok ops ->
  (0 <= t0 + ts_e c off)%Z -> (t0 + elapsed ops + ts_e c off < sec_max)%Z -> (N.of_nat (length ops) <= usize_max)%N ->
  Forall2 obs_normal (OStart c :: ops ++ [OStop]) (snd (run (sys0 t0 off) (OStart c :: ops ++ [OStop]))).
Proof.
  intros Hcfg T Hb Htk Hlo Hhi Hmax.
  apply whole_run_shapes; [exact Hb | exact (timestampsdirect_no_panic c crit t0 off ops Hcfg T Hb Htk Hlo Hhi Hmax)].
Qed.
Print Assumptions timestampsdirect_no_panic_shapes.

(* ------------------------------------------------------------------ instances *)
(* the history of TsdTheorems.tsd_instance_dir: three rotations within one second, a tick, two more rotations, a flush, a raw
   chunk, a snapshot (six files) *)
Example timestampsdirect_no_panic_instance :
  Forall2 obs_normal (OStart tsd_c :: ext_ops ++ [OStop]) (snd (run (sys0 0 0) (OStart tsd_c :: ext_ops ++ [OStop]))).
Proof.
  apply (timestampsdirect_no_panic_shapes tsd_c (CSize 100) 0 0 ext_ops tsd_c_ok tsd_c_tag_ok ext_ops_basic ext_ops_ticks).
  - change (0 <= 0)%Z. lia.
  - change (1 < sec_max)%Z. unfold sec_max. lia.
  - vm_compute. discriminate.
Qed.

(* the observations of this history, computed: every result code is 0 (a snapshot counts as 0), every observation is obs_ok *)
Example timestampsdirect_no_panic_computed :
  List.map (fun ob => match ob with ObsRes code _ => code | ObsList code _ => code | ObsSnap _ _ _ => 0%N end)
           (snd (run (sys0 0 0) (OStart tsd_c :: ext_ops ++ [OStop])))
  = List.map (fun _ => 0%N) (OStart tsd_c :: ext_ops ++ [OStop])
  /\ Forall obs_ok (snd (run (sys0 0 0) (OStart tsd_c :: ext_ops ++ [OStop]))).
Proof. split; [vm_compute; reflexivity | vm_compute; repeat constructor]. Qed.

(* a size criterion, append, a trigger before the first record (history of TsdTheorems.tsd_partition_dir) *)
Example timestampsdirect_no_panic_instance_size :
  Forall obs_ok (snd (run (sys0 0 0) (OStart tsd_c3 :: exd_ops ++ [OStop]))).
Proof.
  apply (timestampsdirect_no_panic tsd_c3 (CSize 3) 0 0 exd_ops tsd_c3_ok tsd_c3_tag_ok exd_ops_basic exd_ops_ticks).
  - change (0 <= 0)%Z. lia.
  - change (3 < sec_max)%Z. unfold sec_max. lia.
  - vm_compute. discriminate.
Qed.
