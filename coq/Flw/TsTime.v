(* Time stamps of rotated files: the text "r%Y-%m-%d_%H-%M-%S" of an instant of the years 1970..9999 has 20 bytes,
   no dot, and determines the instant. *)
Require Import FL.Base.Bytes FL.Base.BytesFacts FL.Time.Civil FL.Time.Period FL.Time.TsFormat FL.Names.NamesFacts FL.Names.SortFacts
  FL.Flw.TsCal.
From Coq Require Import ZifyN ZifyNat ZifyBool.
Open Scope Z_scope.

(* ------------------------------------------------------------------ civil_of on the seconds of these years *)
Definition sec_max : Z := 253402300800.      (* 10000-01-01 00:00:00 *)

Record civil_ok (c : civil) : Prop := {
  ok_y : 0 <= cy c <= 9999; ok_mo : 1 <= cmo c <= 12; ok_d : 1 <= cd c <= 31;
  ok_h : 0 <= ch c <= 23; ok_mi : 0 <= cmi c <= 59; ok_s : 0 <= cs c <= 59 }.

Lemma civil_of_ok t : 0 <= t < sec_max -> civil_ok (civil_of t).
Proof.
  unfold sec_max. intros Ht.
  assert (Hd : 0 <= t / 86400 < day_max) by (unfold day_max; Z.div_mod_to_equations; lia).
  pose proof (civil_days_ok _ Hd) as C. rewrite civil_of_date in C. destruct C as (Y & Mo & D).
  destruct (civil_of_hms t) as (H & Mi & S & _). constructor; assumption.
Qed.

(* ------------------------------------------------------------------ fixed-width decimals *)
Open Scope nat_scope.
Lemma pad_dec_length w z bound : (0 <= z <= bound)%Z -> length (dec (Z.to_N bound)) <= w -> length (pad_dec w z) = w.
Proof.
  intros Hz Hb. unfold pad_dec, pad_left. rewrite app_length, repeat_length.
  pose proof (dec_length_mono (Z.to_N z) (Z.to_N bound) ltac:(lia)). lia.
Qed.
Lemma pad_dec_length2 z : (0 <= z <= 99)%Z -> length (pad_dec 2 z) = 2.
Proof. intros Hz. apply (pad_dec_length 2 _ 99); [exact Hz | vm_compute; lia]. Qed.
Lemma pad_dec_length4 z : (0 <= z <= 9999)%Z -> length (pad_dec 4 z) = 4.
Proof. intros Hz. apply (pad_dec_length 4 _ 9999); [exact Hz | vm_compute; lia]. Qed.
Lemma pad_dec_value w z : dec_value (pad_dec w z) = Z.to_N z.
Proof. unfold pad_dec, pad_left. rewrite dec_value_zeros. apply dec_value_dec. Qed.
Lemma pad_dec_digits w z : all_digits (pad_dec w z) = true.
Proof. unfold pad_dec, pad_left. rewrite all_digits_app, all_digits_repeat0, dec_all_digits. reflexivity. Qed.
Lemma pad_dec_inj w z1 z2 : (0 <= z1)%Z -> (0 <= z2)%Z -> pad_dec w z1 = pad_dec w z2 -> z1 = z2.
Proof. intros H1 H2 E. apply (f_equal dec_value) in E. rewrite !pad_dec_value in E. lia. Qed.

Lemma all_digits_in s c : all_digits s = true -> In c s -> is_digit c = true.
Proof.
  induction s as [|x s IH]; cbn [all_digits In]; [tauto|]. rewrite andb_true_iff. intros [H1 H2] [<-|H]; auto.
Qed.

Lemma app_inj_len {A} (a a' b b' : list A) : length a = length a' -> a ++ b = a' ++ b' -> a = a' /\ b = b'.
Proof.
  revert a'. induction a as [|x a IH]; intros [|y a'] Hl E; cbn [length app] in *; try discriminate; [auto|].
  injection E as -> E. injection Hl as Hl. destruct (IH a' Hl E) as [-> ->]. auto.
Qed.

(* ------------------------------------------------------------------ the text of std_fmt *)
Definition std_text (c : civil) : bytes :=
  114%N :: pad_dec 4 (cy c) ++ 45%N :: pad_dec 2 (cmo c) ++ 45%N :: pad_dec 2 (cd c) ++ 95%N :: pad_dec 2 (ch c)
        ++ 45%N :: pad_dec 2 (cmi c) ++ 45%N :: pad_dec 2 (cs c).

Lemma format_std c : (0 <= cy c <= 9999)%Z -> format_ts std_fmt c = std_text c.
Proof.
  intros Hy. unfold format_ts, std_fmt, std_text. cbn [flat_map fmt_item]. unfold fmt_year.
  destruct (Z.leb_spec 0 (cy c)); [|lia]. destruct (Z.leb_spec (cy c) 9999); [|lia]. cbn [andb app].
  rewrite app_nil_r. reflexivity.
Qed.

Lemma std_text_length c : civil_ok c -> length (std_text c) = 20.
Proof.
  intros [Y Mo D H Mi S]. unfold std_text. cbn [length]. rewrite !app_length. cbn [length]. rewrite !app_length. cbn [length].
  rewrite !app_length. cbn [length]. rewrite !app_length. cbn [length]. rewrite !app_length. cbn [length].
  rewrite pad_dec_length4, !pad_dec_length2 by lia. reflexivity.
Qed.

(* every byte is a digit, 'r', '-' or '_' *)
Lemma std_text_bytes c b : In b (std_text c) -> is_digit b = true \/ b = 114%N \/ b = 45%N \/ b = 95%N.
Proof.
  unfold std_text. intros H.
  repeat (first [ apply in_app_or in H; destruct H as [H|H]; [left; eapply all_digits_in; [apply pad_dec_digits | exact H]|]
                | destruct H as [<-|H]; [auto|] ]).
  left; eapply all_digits_in; [apply pad_dec_digits | exact H].
Qed.

Lemma std_text_second c : civil_ok c -> exists d r, std_text c = 114%N :: d :: r /\ is_digit d = true.
Proof.
  intros Hc. unfold std_text. pose proof (pad_dec_digits 4 (cy c)) as D. pose proof (pad_dec_length4 _ (ok_y c Hc)) as L.
  destruct (pad_dec 4 (cy c)) as [|d r]; [discriminate L|].
  cbn [all_digits] in D. apply andb_prop in D. destruct D as [D _]. cbn [app]. eauto.
Qed.

Lemma std_text_inj c1 c2 : civil_ok c1 -> civil_ok c2 -> std_text c1 = std_text c2 -> c1 = c2.
Proof.
  intros [Y1 Mo1 D1 Hh1 Mi1 S1] [Y2 Mo2 D2 Hh2 Mi2 S2] E. unfold std_text in E. injection E as E.
  apply app_inj_len in E; [|rewrite !pad_dec_length4 by lia; reflexivity]. destruct E as [Ey E]. injection E as E.
  apply app_inj_len in E; [|rewrite !pad_dec_length2 by lia; reflexivity]. destruct E as [Emo E]. injection E as E.
  apply app_inj_len in E; [|rewrite !pad_dec_length2 by lia; reflexivity]. destruct E as [Ed E]. injection E as E.
  apply app_inj_len in E; [|rewrite !pad_dec_length2 by lia; reflexivity]. destruct E as [Eh E]. injection E as E.
  apply app_inj_len in E; [|rewrite !pad_dec_length2 by lia; reflexivity]. destruct E as [Emi E]. injection E as Es.
  apply pad_dec_inj in Ey, Emo, Ed, Eh, Emi, Es; try lia.
  destruct c1 as [y1 m1 d1 h1 i1 s1], c2 as [y2 m2 d2 h2 i2 s2]; cbn [cy cmo cd ch cmi cs] in *; subst; reflexivity.
Qed.

(* ------------------------------------------------------------------ the infix of an instant *)
Open Scope Z_scope.
(* e: the offset that the writer applies (0 with use_utc, the zone offset otherwise) *)
Definition tsx (e t : Z) : bytes := format_ts std_fmt (civil_of (t + e)).
Definition in_years (e t : Z) : Prop := 0 <= t + e < sec_max.

Lemma tsx_text e t : in_years e t -> tsx e t = std_text (civil_of (t + e)) /\ civil_ok (civil_of (t + e)).
Proof.
  intros H. pose proof (civil_of_ok (t + e) H) as Ok. split; [|exact Ok]. unfold tsx. apply format_std. apply Ok.
Qed.

Lemma tsx_length e t : in_years e t -> length (tsx e t) = 20%nat.
Proof. intros H. destruct (tsx_text e t H) as [-> Ok]. apply std_text_length, Ok. Qed.

Lemma tsx_inj e t1 t2 : in_years e t1 -> in_years e t2 -> tsx e t1 = tsx e t2 -> t1 = t2.
Proof.
  intros H1 H2 E. destruct (tsx_text e t1 H1) as [E1 Ok1], (tsx_text e t2 H2) as [E2 Ok2]. rewrite E1, E2 in E.
  apply std_text_inj in E; [|assumption|assumption]. apply civil_of_inj in E. lia.
Qed.

Lemma tsx_bytes e t b : in_years e t -> In b (tsx e t) -> is_digit b = true \/ b = 114%N \/ b = 45%N \/ b = 95%N.
Proof. intros H. destruct (tsx_text e t H) as [-> Ok]. apply std_text_bytes. Qed.

Lemma tsx_second e t : in_years e t -> exists d r, tsx e t = 114%N :: d :: r /\ is_digit d = true.
Proof. intros H. destruct (tsx_text e t H) as [-> Ok]. apply std_text_second. exact Ok. Qed.

Lemma tsx_no_dot e t : in_years e t -> ~ In 46%N (tsx e t).
Proof. intros H I. destruct (tsx_bytes e t 46%N H I) as [D|[D|[D|D]]]; [vm_compute in D|..]; discriminate. Qed.

Lemma tsx_nonempty e t : in_years e t -> tsx e t <> [].
Proof. intros H E. pose proof (tsx_length e t H) as L. rewrite E in L. discriminate. Qed.
