(* TimestampsDirect naming with a cleanup strategy, part 2: the invariant TsdKInv, one cleanup, one rotation (mount_next with
   cleanup), every history of basic operations with a clock that does not go backwards, and the end-to-end theorem
   timestampsdirect_cleanup_stream:  after the writer is stopped the directory holds exactly the file that was written last
   (the newest key), the newest n - 1 closed files as plain files, the next m closed files as archives with the same
   content, nothing else ((n, m) = klimd k, the effective limits of a direct naming: the current file counts as one of the n
   plain files, NumDCleanupStep.v).  The files are named by keys (second of their start, position within the second) as in
   TsdInv.v; `keys` lists the keys of ALL files ever written, also of those that have been removed.
   The abstract side (aview, a_run, ...) is the one of Numbers naming (NumRun.v).  The condition on the suffix (sfx_ok: it is
   not, and does not end with, .gz) is asked for whatever the strategy is, also for KNever, which TsdTheorems.v covers without it. *)
Require Import FL.Base.Bytes FL.Base.BytesFacts FL.Fs.Fs FL.Time.TsFormat FL.Names.FileSpec FL.Flw.Model
  FL.Flw.ModelFacts FL.Flw.NumFs FL.Flw.NumInv FL.Flw.Run FL.Flw.NumRun FL.Flw.CleanupFacts FL.Flw.NumKillRestart
  FL.Flw.NumCleanupNames FL.Flw.NumCleanupStep FL.Flw.NumCleanupRun FL.Flw.QuietFacts FL.Flw.GenCleanupRun FL.Flw.NumDCleanupStep FL.Flw.NumDCleanupRun
  FL.Flw.TsTime FL.Flw.TsNames FL.Flw.TsInv FL.Flw.TsRun FL.Flw.TsTheorems FL.Flw.TsdInv FL.Flw.GenCleanup
  FL.Flw.TsCleanupNames.
From Coq Require Import Lia.
Open Scope nat_scope.

(* ------------------------------------------------------------------ configurations *)
Definition tsdkcfg (c : config) (crit : criterion) (k : cleanup) : Prop :=
  c_rot c = Some (crit, NTimestampsDirect, k) /\ fts (c_spec c) = false /\ c_symlink c = false /\ c_async c = false
  /\ c_bg c = false.

(* ------------------------------------------------------------------ the invariant *)
Record TsdKInv (c : config) (e lo0 : Z) (w : world) (wr : writer) (keys : list key) (closed : list bytes) (lo mid : nat) : Prop := {
  tk_quiet : quiet w;
  tk_wf : fs_wf (wfs w);
  tk_off : eoff c w = e;
  tk_len : length keys = S (length closed);
  tk_cur : lookup (wfs w) (tname c e keys (length closed)) = Some (wino wr);
  tk_curplain : plain (inode (wfs w) (wino wr));
  tk_mid : mid <= length closed;
  tk_dir : gdir (tname c e keys) (cname c) (wfs w) (closed ++ [content (wfs w) (wino wr)]) lo mid;
  tk_nocur : lookup (wfs w) (cname c) = None;
  tk_keys : keys_ok keys;
  tk_range : forall k, In k keys -> (lo0 <= fst k <= wnow w)%Z;
  tk_wr : wr_ok wr;
  tk_cap : wcap wr = c_cap c }.

Definition st_tsdk (c : config) (kc : cleanup) (e : Z) (k : key) (roll : roll_state) (wr : writer) : flw :=
  {| f_cfg := c; f_inner := Active (Some (mk_rsk kc (NSTs (fst k) None std_fmt) roll)) wr (kname c e k); f_poisoned := false |}.

Lemma tk_years c e lo0 hi w wr keys closed lo mid :
  years_ok e lo0 hi -> (wnow w <= hi)%Z -> TsdKInv c e lo0 w wr keys closed lo mid -> forall k, In k keys -> in_years e (fst k).
Proof. intros Y Hhi I k Ik. apply (years_in e lo0 hi); [exact Y|]. pose proof (tk_range _ _ _ _ _ _ _ _ _ I k Ik). lia. Qed.

Lemma tk_now c e lo0 w wr keys closed lo mid : TsdKInv c e lo0 w wr keys closed lo mid -> (lo0 <= wnow w)%Z.
Proof.
  intros I. pose proof (tk_len _ _ _ _ _ _ _ _ _ I) as Hlen.
  assert (Ik : In (nth 0 keys kd) keys) by (apply nth_In; lia).
  pose proof (tk_range _ _ _ _ _ _ _ _ _ I _ Ik). lia.
Qed.

(* ---- the cleanup keeps the invariant and moves the limits; the current file is not touched ---- *)
Lemma cleanup_tk c crit k e lo0 hi w wr keys closed lo mid :
  tsdkcfg c crit k -> sfx_ok (c_spec c) -> years_ok e lo0 hi -> (wnow w <= hi)%Z -> TsdKInv c e lo0 w wr keys closed lo mid ->
  exists w', cleanup_impl c w k (IFTs std_fmt) (Some (tname c e keys (length closed))) = (Ok tt, w') /\ same_env w w'
    /\ TsdKInv c e lo0 w' wr keys closed (dnew_lo k lo (length closed)) (dnew_mid k mid (length closed))
    /\ cur_view w' wr = cur_view w wr.
Proof.
  intros (Hrot & Hts & Hlink & Has & Hbg) Hside Y Hhi I. pose proof I as [Q W Hoff Hlen Hc Hcp Hmid KD Hnc Hko Hrg Hwr Hcap].
  pose proof (tk_years _ _ _ _ _ _ _ _ _ _ Y Hhi I) as Yk.
  unfold dnew_lo, dnew_mid in *. destruct (klimd k) as [[n m]|] eqn:Ek.
  - pose proof Hside as Hsfx. pose proof (klimd_pos _ _ _ Ek) as Hn.
    set (all := closed ++ [content (wfs w) (wino wr)]) in *.
    assert (Elen : length all = S (length closed)) by (unfold all; apply glen_snoc).
    assert (Hlen' : length keys = length all) by (rewrite Elen; exact Hlen).
    pose proof (gnames_ts c e keys Hsfx Hko Yk) as GN. rewrite Hlen' in GN.
    rewrite (cleanup_impl_unfold_d c w k (IFTs std_fmt) n m _ Ek Q), (fixed_of_fixed0 c w Hts).
    rewrite (list_log_gz_ts c e (woff w) (wfs w) keys all lo mid Hsfx Hko Yk Hlen' KD).
    destruct (gcleanup_d (tname c e keys) (cname c) w n m all lo mid GN Q W KD Hn) as (w' & E & S & W' & KD' & SC & SR).
    replace (length all - 1) with (length closed) in E by (rewrite Elen; lia).
    unfold cleanup_body in E. rewrite E. clear E.
    rewrite Elen in KD', SR.
    assert (SL : same_at (wfs w) (wfs w') (tname c e keys (length closed))) by (apply SR; lia).
    destruct (same_at_content _ _ _ _ SL Hc) as [Lc' Ic'].
    assert (Ec : content (wfs w') (wino wr) = content (wfs w) (wino wr)) by (unfold content; rewrite Ic'; reflexivity).
    exists w'. split; [reflexivity|]. split; [exact S|]. split.
    + constructor; auto.
      * apply S.
      * unfold eoff in *. destruct S as [_ [_ [-> _]]]. exact Hoff.
      * rewrite Ic'. exact Hcp.
      * lia.
      * rewrite Ec. exact KD'.
      * destruct SC as [SC _]. rewrite SC. exact Hnc.
      * destruct S as [_ [-> _]]. exact Hrg.
    + unfold cur_view. rewrite Ec. reflexivity.
  - apply klimd_none in Ek. subst k. exists w. split; [reflexivity|]. split; [apply same_env_refl; exact Q|]. split; [exact I | reflexivity].
Qed.

(* ---- one rotation ---- *)
Lemma mount_next_rotates_tk c crit k e lo0 hi w wr keys closed roll force :
  tsdkcfg c crit k -> sfx_ok (c_spec c) -> tag_ok c -> years_ok e lo0 hi ->
  TsdKInv c e lo0 w wr keys closed (d_lo k (length closed)) (d_mid k (length closed)) ->
  (wnow w <= hi)%Z -> (N.of_nat (length keys) <= usize_max)%N ->
  force || rotation_necessary w roll = true ->
  exists w' wr',
    mount_next c w (Active (Some (mk_rsk k (NSTs (fst (nth (length closed) keys kd)) None std_fmt) roll)) wr
                           (kname c e (nth (length closed) keys kd))) force
      = (Ok tt, w', Active (Some (mk_rsk k (NSTs (wnow w) None std_fmt) (roll_reset roll (wnow w)))) wr'
                           (kname c e (wnow w, count (wnow w) keys)))
    /\ TsdKInv c e lo0 w' wr' (keys ++ [(wnow w, count (wnow w) keys)]) (closed ++ [cur_view w wr])
                (d_lo k (S (length closed))) (d_mid k (S (length closed)))
    /\ cur_view w' wr' = [] /\ same_env w w'.
Proof.
  intros Hcfg Hside T Y I Hhi Hmax Hnec. pose proof Hcfg as (Hrot & Hts & Hlink & Has & Hbg).
  pose proof I as [Q W Hoff Hlen Hc Hcp Hmid KD Hnc Hko Hrg Hwr Hcap].
  pose proof (tk_now _ _ _ _ _ _ _ _ _ I) as Hlo.
  pose proof (tk_years _ _ _ _ _ _ _ _ _ _ Y Hhi I) as Yk.
  assert (Ynow : in_years e (wnow w)) by (apply (years_in e lo0 hi); [exact Y | lia]).
  assert (Hle : forall k0, In k0 keys -> (fst k0 <= wnow w)%Z) by (intros k0 Ik; specialize (Hrg k0 Ik); lia).
  pose proof Hside as Hsfx.
  set (L := length closed) in *.
  set (knew := (wnow w, count (wnow w) keys)).
  assert (Eall : length (closed ++ [content (wfs w) (wino wr)]) = length keys) by (rewrite glen_snoc; symmetry; exact Hlen).
  (* the answer of collision_free: the next position of the present second *)
  assert (NS : next_infix c w (NSTs (fst (nth L keys kd)) None std_fmt) (infix_of e knew) w (NSTs (wnow w) None std_fmt)).
  { split; [|reflexivity].
    apply (collision_free_tsk c e w keys _ _ _ (wnow w) (count (wnow w) keys) Q Hts Hoff T Hsfx Ynow Yk (eq_sym Eall) KD).
    - exact (keys_count keys Hko (wnow w)).
    - pose proof (count_le_length (wnow w) keys). lia.
    - intros Hpos. exists L. rewrite glen_snoc. fold L. split; [pose proof (gd_le _ _ _ _ _ _ KD); lia|].
      destruct (last_key_newest' keys (wnow w) _ Hko Hle (keys_count keys Hko (wnow w)) Hpos) as [_ El].
      rewrite Hlen in El. cbn [Nat.sub] in El. rewrite Nat.sub_0_r in El. exact El. }
  (* the directory after create + flush *)
  destruct (gdir_snoc_key c e keys (wnow w) _ _ _ _ Hsfx Hko Yk Hle Ynow Eall KD) as (Hko' & Yk' & GN & Enew & KD1).
  fold knew in Hko', Yk', GN, Enew, KD1. set (keys' := keys ++ [knew]) in *. rewrite Hlen in GN, Enew.
  assert (Eold : tname c e keys' L = tname c e keys L) by (apply tname_snoc; lia).
  destruct (gdir_rotate_d (tname c e keys') (cname c) (wfs w) closed _ _ (wino wr) (wpend wr) (wnow w) GN W KD1 Hmid) as (Ht & R);
    [fold L; rewrite Eold; exact Hc | exact Hnc |].
  fold L in Ht, R. rewrite Enew in Ht, R. cbn zeta in R. destruct R as (W3 & L3t & Inew & Hnc3 & KD3).
  assert (Enm : name_of c w (Some (infix_of e knew)) = kname c e knew) by (apply name_of_fixed; exact Hts).
  pose proof (mount_next_fresh c w (mk_rsk k (NSTs (fst (nth L keys kd)) None std_fmt) roll) wr (kname c e (nth L keys kd)) force
                _ w _ Hnec NS Q Hlink) as M.
  rewrite Enm in M. specialize (M Ht). cbv zeta in M. unfold flushed, cleanup_or_queue in M. rewrite set_fs_set_fs in M.
  cbn [mk_rsk rs_roll rs_cleanup rs_bg ns_filter ns_writes_direct wfs set_fs] in M. rewrite M. clear M.
  set (f3 := append_ino (fst (create_file (wfs w) (kname c e knew) 0%N (wnow w))) (wino wr) (wpend wr)) in *.
  set (new := snd (create_file (wfs w) (kname c e knew) 0%N (wnow w))) in *.
  set (wr' := {| wino := length (inodes (wfs w)); wpend := []; wcap := c_cap c |}).
  assert (Elen : length (closed ++ [cur_view w wr]) = S L) by apply glen_snoc.
  assert (I3 : TsdKInv c e lo0 (set_fs w f3) wr' keys' (closed ++ [cur_view w wr]) (d_lo k L) (d_mid k L)).
  { constructor; cbn [wfs set_fs].
    - exact Q.
    - exact W3.
    - exact Hoff.
    - unfold keys'. rewrite !glen_snoc, Hlen. reflexivity.
    - rewrite Elen, Enew. exact L3t.
    - change (wino wr') with new. rewrite Inew. split; reflexivity.
    - rewrite Elen. lia.
    - exact KD3.
    - exact Hnc3.
    - exact Hko'.
    - intros k0 Ik. apply in_app_or in Ik. destruct Ik as [Ik|[<-|[]]].
      + exact (Hrg k0 Ik).
      + unfold knew. cbn [fst set_fs wnow]. lia.
    - apply wr_ok_nil.
    - reflexivity. }
  destruct (cleanup_tk c crit k e lo0 hi (set_fs w f3) wr' _ _ _ _ Hcfg Hside Y Hhi I3) as (w4 & Ecl & S4 & I4 & V4).
  rewrite Elen, Enew in Ecl. rewrite Ecl. rewrite Elen, dnew_lo_step, dnew_mid_step in I4.
  rewrite (reset_fresh (set_fs w f3) roll _ new (wnow w) L3t Inew).
  exists w4, wr'. split; [reflexivity|]. split; [exact I4|].
  split; [rewrite V4; exact (cur_view_fresh (set_fs w f3) new _ _ Inew)|].
  eapply same_env_trans; [apply (same_env_set_fs w f3 Q) | exact S4].
Qed.

(* ---- appending to the current inode keeps the invariant ---- *)
Lemma tsdkinv_append c e lo0 hi w w' wr wr' keys closed lo mid x :
  sfx_ok (c_spec c) -> years_ok e lo0 hi -> (wnow w <= hi)%Z ->
  TsdKInv c e lo0 w wr keys closed lo mid -> wfs w' = append_ino (wfs w) (wino wr) x -> same_env w w' ->
  wino wr' = wino wr -> wcap wr' = wcap wr -> wr_ok wr' ->
  TsdKInv c e lo0 w' wr' keys closed lo mid /\ content (wfs w') (wino wr') = content (wfs w) (wino wr) ++ x.
Proof.
  intros Hsfx Y Hhi I F SE Ei Ec Hok. pose proof (tk_years _ _ _ _ _ _ _ _ _ _ Y Hhi I) as Yk.
  destruct I as [Q W Hoff Hlen Hc Hcp Hmid KD Hnc Hko Hrg Hwr Hcap].
  pose proof (wf_bound _ W _ _ Hc) as Hold.
  assert (C' : content (wfs w') (wino wr') = content (wfs w) (wino wr) ++ x).
  { rewrite F, Ei, content_append, Nat.eqb_refl by assumption. reflexivity. }
  assert (GN : gnames (tname c e keys) (cname c) (S (length closed))) by (rewrite <- Hlen; apply gnames_ts; assumption).
  split; [|exact C'].
  constructor.
  - exact (proj1 SE).
  - rewrite F. apply wf_append. exact W.
  - unfold eoff in *. destruct SE as [_ [_ [-> _]]]. exact Hoff.
  - exact Hlen.
  - rewrite F, lookup_append, Ei. exact Hc.
  - rewrite F, Ei, inode_append, Nat.eqb_refl by assumption. exact Hcp.
  - exact Hmid.
  - rewrite C', F. apply gdir_append; assumption.
  - rewrite F, lookup_append. exact Hnc.
  - exact Hko.
  - destruct SE as [_ [-> _]]. exact Hrg.
  - exact Hok.
  - congruence.
Qed.

(* ---- the first write initialises the writer on the empty directory; the initial cleanup finds only the new file ---- *)
Lemma initialize_empty_tk c crit k e lo0 hi w :
  tsdkcfg c crit k -> sfx_ok (c_spec c) -> years_ok e lo0 hi -> (wnow w <= hi)%Z ->
  quiet w -> names (wfs w) = [] -> inodes (wfs w) = [] -> eoff c w = e -> (lo0 <= wnow w)%Z ->
  exists w' wr roll,
    initialize c w = (Ok (Active (Some (mk_rsk k (NSTs (wnow w) None std_fmt) roll)) wr (kname c e (wnow w, 0))), w')
    /\ TsdKInv c e lo0 w' wr [(wnow w, 0)] [] 0 0 /\ cur_view w' wr = [] /\ roll_size_ok roll 0 /\ same_env w w'
    /\ (forall m, crit = CSize m -> roll = RSize m 0)
    /\ roll = roll_init crit (wnow w).
Proof.
  intros Hcfg Hside Y Hhi Q Hn Hi Hoff Hlo. pose proof Hcfg as (Hrot & Hts & Hlink & Has & Hbg).
  set (k0 := (wnow w, 0)).
  assert (NI : init_naming c w NTimestampsDirect = (Ok (NSTs (wnow w) None std_fmt, infix_of e k0), w)).
  { unfold init_naming. rewrite (latest_timestamp_file_empty c w _ Q Hn). cbn [bind].
    unfold collision_free. rewrite !tick_quiet by assumption. rewrite collision_free_infix_empty by assumption. cbn [bind].
    rewrite newest_of_next_same, infix_from_ts_tsx, Hoff. destruct (c_append c); reflexivity. }
  assert (Enm : name_of c w (Some (infix_of e k0)) = kname c e k0) by (apply name_of_fixed; exact Hts).
  pose proof (initialize_open c w crit _ k _ _ w Hrot NI Q Hlink Hbg) as M.
  rewrite Enm in M. specialize (M (lookup_empty _ _ Hn)). cbv zeta in M. cbn [ns_filter naming_writes_direct] in M. rewrite M. clear M.
  assert (F2 : fst (create_file (wfs w) (kname c e k0) 0%N (wnow w))
               = {| names := [(kname c e k0, 0)]; inodes := [fresh_file (wnow w)] |})
    by (unfold create_file; cbn [fst]; rewrite Hn, Hi; reflexivity).
  rewrite F2, Hi. cbn [length].
  set (w2 := set_fs w {| names := [(kname c e k0, 0)]; inodes := [fresh_file (wnow w)] |}).
  set (wr := {| wino := 0; wpend := []; wcap := c_cap c |}).
  destruct (gdir_first (tname c e [k0]) (cname c) (wnow w)) as (KD0 & Lc0 & W0 & C0 & I0).
  change (tname c e [k0] 0) with (kname c e k0) in KD0, Lc0, W0, C0, I0.
  assert (Ynow : in_years e (wnow w)) by (apply (years_in e lo0 hi); [exact Y | lia]).
  assert (I2 : TsdKInv c e lo0 w2 wr [k0] [] 0 0).
  { constructor; cbn [length app wfs set_fs w2].
    - exact Q.
    - exact W0.
    - exact Hoff.
    - reflexivity.
    - exact Lc0.
    - cbn [wr wino]. rewrite I0. split; reflexivity.
    - lia.
    - exact KD0.
    - destruct (lookup _ (cname c)) as [j|] eqn:E; [|reflexivity]. exfalso.
      destruct (gd_only _ _ _ _ _ _ KD0 _ _ E) as [X|[(i & Hi' & X)|(i & Hi' & _)]]; [| |lia].
      + unfold lookup in E. cbn in E. destruct (beq_spec (kname c e k0) (cname c)) as [X'|]; [|discriminate].
        exact (kname_not_cname c e k0 Ynow X').
      + cbn [length] in Hi'. assert (i = 0) by lia. subst i. symmetry in X. exact (kname_not_cname c e k0 Ynow X).
    - exact (ko_snoc [] (wnow w) ko_nil (fun k1 (H : In k1 []) => match H with end)).
    - intros k1 [<-|[]]. unfold k0, w2. cbn [fst wnow set_fs]. lia.
    - apply wr_ok_nil.
    - reflexivity. }
  destruct (cleanup_tk c crit k e lo0 hi w2 wr [k0] [] 0 0 Hcfg Hside Y Hhi I2) as (w4 & E4 & S4 & I4 & V4).
  change (tname c e [k0] (length (@nil bytes))) with (kname c e k0) in E4. rewrite E4. cbn [bind].
  assert (Z0 : dnew_lo k 0 (length (@nil bytes)) = 0 /\ dnew_mid k 0 (length (@nil bytes)) = 0).
  { unfold dnew_lo, dnew_mid. destruct (klimd k) as [[n m]|] eqn:Ek; cbn [length]; [|split; reflexivity].
    apply klimd_pos in Ek. split; lia. }
  destruct Z0 as [Z1 Z2]. rewrite Z1, Z2 in I4.
  exists w4, wr, (roll_init crit (wnow w)). split; [reflexivity|]. split; [exact I4|].
  split; [rewrite V4; exact (cur_view_fresh w2 0 _ _ I0)|].
  split; [apply roll_init_size_ok|]. split; [eapply same_env_trans; [apply (same_env_set_fs w (wfs w2) Q) | exact S4]|].
  split; [intros m Hm; apply roll_init_rsize; exact Hm | reflexivity].
Qed.

(* the clock may advance under the invariant *)
Lemma tsdkinv_tick c e lo0 w wr keys closed lo mid dt : TsdKInv c e lo0 w wr keys closed lo mid -> (0 <= dt)%Z ->
  TsdKInv c e lo0 (set_now w (wnow w + dt)%Z) wr keys closed lo mid.
Proof.
  intros [Q W Hoff Hlen Hc Hcp Hmid KD Hnc Hko Hrg Hwr Hcap] Hdt. constructor; try assumption.
  intros k Ik. specialize (Hrg k Ik). cbn [set_now wnow]. lia.
Qed.

(* ------------------------------------------------------------------ the run: the four facts of GenCleanupRun.v *)
Definition tk_inv (c : config) (k : cleanup) (e lo0 : Z) (w : world) (wr : writer) (keys : list key) (closed : list bytes) : Prop :=
  TsdKInv c e lo0 w wr keys closed (d_lo k (length closed)) (d_mid k (length closed)).
Definition tk_nam (keys : list key) (closed : list bytes) : naming_state := NSTs (fst (nth (length closed) keys kd)) None std_fmt.
Definition tk_fnm (c : config) (e : Z) (keys : list key) (closed : list bytes) : bytes := kname c e (nth (length closed) keys kd).
Definition tk_first (t : Z) : list key := [(t, 0)].
Definition tk_next (t : Z) (keys : list key) : list key := keys ++ [(t, count t keys)].

Lemma tk_run_facts c crit k e lo0 hi : tsdkcfg c crit k -> sfx_ok (c_spec c) -> tag_ok c -> years_ok e lo0 hi ->
  run_facts c crit k e lo0 hi (list key) (tk_inv c k e lo0) tk_nam (tk_fnm c e) tk_first tk_next.
Proof.
  intros Hcfg Hside T Y. pose proof Hcfg as (Hrot & Hts & Hlink & Has & Hbg). unfold tk_inv. constructor.
  - exact Hts.
  - exact Has.
  - intros w wr keys cl I. apply I.
  - intros w wr keys cl I. apply I.
  - intros w wr keys cl roll force I Hhi Hmax Hnec.
    assert (Hk : (N.of_nat (length keys) <= usize_max)%N) by (rewrite (tk_len _ _ _ _ _ _ _ _ _ I); exact Hmax).
    destruct (mount_next_rotates_tk c crit k e lo0 hi w wr keys cl roll force Hcfg Hside T Y I Hhi Hk Hnec) as (w' & wr' & E & I' & V' & S').
    exists w', wr'. rewrite glen_snoc. split; [|split; [exact I' | split; [exact V' | exact S']]].
    unfold tk_nam, tk_fnm, tk_next. cbn [st_ix f_inner].
    rewrite nth_snoc_last by (rewrite glen_snoc; exact (tk_len _ _ _ _ _ _ _ _ _ I)). exact E.
  - intros w w' wr wr' keys cl x I Hhi. exact (tsdkinv_append c e lo0 hi w w' wr wr' keys cl _ _ x Hside Y Hhi I).
  - intros w (Q & Hn & Hi & Hoff & Hlo) Hhi.
    destruct (initialize_empty_tk c crit k e lo0 hi w Hcfg Hside Y Hhi Q Hn Hi Hoff Hlo) as (w' & wr & roll & E & I & V & _ & S & _ & ->).
    exists w', wr. split; [exact E|]. cbn [length]. rewrite d_lo_0, d_mid_0. split; [exact I | split; [exact V | exact S]].
  - intros w wr keys cl dt I Hdt. apply tsdkinv_tick; assumption.
Qed.

(* n bounds the number of closed files (it grows by at most one with every operation) *)
Definition RelTK (c : config) (crit : criterion) (k : cleanup) (e lo0 : Z) (n : nat) (x : sys) (a : aview) : Prop :=
  s_tl x = [] /\ wacts (s_w x) = 0 /\
  match a with
  | None => s_flw x = Some (new_flw c) /\ quiet (s_w x) /\ names (wfs (s_w x)) = [] /\ inodes (wfs (s_w x)) = []
            /\ eoff c (s_w x) = e /\ (lo0 <= wnow (s_w x))%Z
  | Some (closed, cur) =>
    exists keys wr roll, s_flw x = Some (st_tsdk c k e (nth (length closed) keys kd) roll wr)
      /\ TsdKInv c e lo0 (s_w x) wr keys closed (d_lo k (length closed)) (d_mid k (length closed))
      /\ cur_view (s_w x) wr = cur /\ length closed <= n
      /\ roll_size_ok roll (length cur) /\ (forall m, crit = CSize m -> exists z, roll = RSize m z)
  end.

Lemma run_rel_tk c crit k e lo0 hi : tsdkcfg c crit k -> sfx_ok (c_spec c) -> tag_ok c -> years_ok e lo0 hi ->
  forall ops x a n, RelTK c crit k e lo0 n x a -> Forall basic_op ops -> Forall tick_ok ops ->
  (wnow (s_w x) + elapsed ops <= hi)%Z -> (N.of_nat (n + length ops) <= usize_max)%N ->
  RelTK c crit k e lo0 (n + length ops) (fst (run x ops)) (a_run a ops (snd (run x ops)))
  /\ wnow (s_w (fst (run x ops))) = (wnow (s_w x) + elapsed ops)%Z
  /\ Forall obs_ok (snd (run x ops))
  /\ (forall m, crit = CSize m -> a_run a ops (snd (run x ops)) = s_run m a ops).
Proof. intros Hcfg Hside T Y. exact (run_rel_ix _ _ _ _ _ _ _ _ _ _ _ _ (tk_run_facts c crit k e lo0 hi Hcfg Hside T Y)). Qed.

(* ------------------------------------------------------------------ stop: what is left in the directory *)
(* keys: the keys of ALL files ever written (length closed + 1 of them); the files of the keys at the positions lo .. L
   exist: archives below mid, plain from mid on (the last one is the file that was being written); no rCURRENT; nothing else *)
Definition tsdk_view (c : config) (e : Z) (f : fs) (keys : list key) (closed : list bytes) (cur : bytes) (lo mid : nat) : Prop :=
  length keys = S (length closed)
  /\ gdir (tname c e keys) (cname c) f (closed ++ [cur]) lo mid /\ mid <= length closed /\ lookup f (cname c) = None.

Lemma start_rel_tk c crit k t0 off : RelTK c crit k (ts_e c off) t0 0 (fst (step (sys0 t0 off) (OStart c))) None.
Proof. cbn. repeat split. cbn. lia. Qed.

(* ------------------------------------------------------------------ THE THEOREM (stream form) *)
(* a is the view reconstructed from the reported rotation flags (what each closed file held, the file being written): its
   concatenation is what was written.  The directory left behind holds the file being written, the newest n - 1 closed
   files as they are and the next m as archives - and nothing else; and no operation fails or panics. *)
Theorem timestampsdirect_cleanup_stream c crit k t0 off ops :
  tsdkcfg c crit k -> tag_ok c -> sfx_ok (c_spec c) -> Forall basic_op ops -> Forall tick_ok ops ->
  (0 <= t0 + ts_e c off)%Z -> (t0 + elapsed ops + ts_e c off < sec_max)%Z -> (N.of_nat (length ops) <= usize_max)%N ->
  let x0 := fst (step (sys0 t0 off) (OStart c)) in
  let a := a_run None ops (snd (run x0 ops)) in
  let r := run (sys0 t0 off) (OStart c :: ops ++ [OStop]) in
  let f := wfs (s_w (fst r)) in
  flat a = written ops
  /\ match a with
     | None => names f = []
     | Some (closed, cur) =>
       exists keys, tsdk_view c (ts_e c off) f keys closed cur (d_lo k (length closed)) (d_mid k (length closed))
                    /\ keys_ok keys /\ (forall key, In key keys -> (t0 <= fst key <= t0 + elapsed ops)%Z)
     end
  /\ Forall obs_ok (snd r)
  /\ (forall m, crit = CSize m -> a = s_run m None ops).
Proof.
  intros Hcfg T Hsfx Hb Htk Hlo Hhi Hmax x0 a r f.
  assert (Y : years_ok (ts_e c off) t0 (t0 + elapsed ops)) by (split; assumption).
  destruct (stream_ix _ _ _ _ _ _ _ _ _ _ _ _ (tk_run_facts c crit k _ _ _ Hcfg Hsfx T Y) t0 off ops
              (start_rel_tk c crit k t0 off) Hb Htk (Z.le_refl _) Hmax) as (Fl & V & K & Z).
  fold x0 a r in Fl, V, K, Z. split; [exact Fl|]. split; [|split; [exact K | exact Z]].
  destruct a as [[closed cur]|]; [|exact V].
  destruct V as (w & wr & keys & I & Ec & F & N). exists keys. unfold f. rewrite F.
  destruct I as [Q W Hoff Hlen Hc Hcp Hmid KD Hnc Hko Hrg Hwr Hcap]. rewrite Ec in KD.
  split; [split; [exact Hlen | split; [exact KD | split; [exact Hmid | exact Hnc]]]|].
  split; [exact Hko|]. intros key Ik. specialize (Hrg key Ik). lia.
Qed.
Print Assumptions timestampsdirect_cleanup_stream.
