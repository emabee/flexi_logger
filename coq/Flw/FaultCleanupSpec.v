(* C19 with rotation AND cleanup: the executable SPECIFICATION of what a FileLogWriter with Numbers naming (rCURRENT,
   r00000, r00001, ...), size criterion, direct mode (no buffer), cleanup KeepLogFiles n (deletion only, in the
   caller's thread), synchronous, makes of a list of records when the file-system calls fail as an arbitrary fault
   oracle says; and what the specification implies.  The refinement proof (the model `run` does exactly this) is in
   FaultCleanup.v.  FaultRotSpec.v is the same without cleanup; the cases (i)-(iv) described there stay as they are.

   What the cleanup adds, read off mount_next / initialize / cleanup_impl / cleanup_loop (proved for every oracle in
   FaultCleanup.v, faults_rotation_cleanup; single oracles are computed against `run` in the examples kx_* there):

   The cleanup runs (a) at the end of a rotation, after the new rCURRENT has been opened, and (b) at the end of the
   initialisation, after rCURRENT has been opened (and its size has been read, with append).  It makes one read_dir
   call and then one remove_file call for every closed file beyond the newest n, from the newest of them to the
   oldest; the first failing call ends it with an error.

   (v)   a failing call of the cleanup AT A ROTATION: mount_next returns Err, but the state has been switched to the
         new writer already; write_buffer reports ELogFile and WRITES THE RECORD INTO THE NEW rCURRENT.  Nothing is
         lost, the log call returns normally.  What was not deleted stays: the directory holds MORE closed files than
         n (and, when a remove_file failed half-way, with a gap in the numbers: the newer surplus files are gone, the
         older ones are still there).  The next rotation runs the cleanup again over everything that is there, so
         the limit is restored as soon as one cleanup gets through.
   (vi)  a failing call of the cleanup AT THE INITIALISATION: initialize returns Err like for every other failing step
         of the initialisation: write_buffer returns Err BEFORE anything is written, the record is LOST, the handle
         reports EWrite, the state stays `Initial`.  rCURRENT has been created by then: without append the next
         initialisation renames this empty file to r<next index> (an empty closed file appears), with append it is
         continued.  The next initialisation lists the directory again (the index is the highest one found + 1).
   So a failure inside the cleanup loses a record exactly in case (vi) - the record being written, as C19 allows - and
   never at a rotation.

   With a cleanup the closed files are not a contiguous range r00000..r<n-1> as in FaultRotSpec.v: the specification
   keeps them as a list of (index, content), ascending. *)
Require Import FL.Base.Bytes FL.Base.BytesFacts FL.Fs.Fs FL.Flw.Model FL.Flw.Run FL.Flw.NumRun FL.Flw.FaultFacts FL.Flw.FaultRotSpec.
From Coq Require Import ZifyN ZifyNat ZifyBool.
Open Scope nat_scope.

(* ------------------------------------------------------------------ the specification *)
(* the closed files r<i>: index and content, ascending *)
Definition cdir := list (nat * bytes).
(* the index a (re-)initialisation finds: the highest one + 1 *)
Definition next_idx (cl : cdir) : nat := fold_left (fun _ p => S (fst p)) cl 0.

Inductive kst :=
| KInit (cl : cdir) (created : bool)         (* writer not initialised; rCURRENT absent / present and empty *)
| KCur (cl : cdir) (idx : nat) (d : bytes)   (* rCURRENT holds d, the writer writes into it; the next closed file is r<idx> *)
| KOld (cl : cdir) (idx : nat) (d : bytes).  (* closed files cl ++ [(idx, d)], NO rCURRENT: it was renamed to r<idx>, the new one
                                                could not be created; the writer still writes into r<idx> *)

(* the remove_file calls for the files beyond the limit, newest first; the first failure ends the loop: that file
   and the older ones stay *)
Fixpoint s_remove (old : cdir) (fl : list bool) : cdir * bool * list bool :=
  match old with
  | [] => ([], true, fl)
  | p :: r => let '(f, fl1) := pop fl in if f then (old, false, fl1) else s_remove r fl1
  end.
(* one cleanup: read_dir, then the removals; the result: the closed files that are left, success, the oracle *)
Definition s_cleanup (n : nat) (cl : cdir) (fl : list bool) : cdir * bool * list bool :=
  let '(f0, fl0) := pop fl in                                  (* read_dir *)
  if f0 then (cl, false, fl0) else
  let desc := rev cl in
  let '(rest, ok, fl1) := s_remove (skipn n desc) fl0 in
  (rev rest ++ rev (firstn n desc), ok, fl1).

(* an initialised writer whose file (rCURRENT, or - old = true - the closed file r<idx>) holds d *)
Definition k_active (m : N) (n : nat) (old : bool) (cl : cdir) (idx : nat) (d b : bytes) (fl : list bool)
  : kst * list ecode * list bool :=
  let same d' := if old then KOld cl idx d' else KCur cl idx d' in
  if (m <? N.of_nat (length d))%N then
    let '(f1, fl1) := pop fl in                               (* rename rCURRENT -> r<idx> *)
    if f1 then let '(d', e, fl2) := s_write d b fl1 in (same d', ELogFile :: e, fl2)
    else
      let '(f2, fl2) := pop fl1 in                            (* create the new rCURRENT *)
      if f2 then let '(d', e, fl3) := s_write d b fl2 in (KOld cl idx d', ELogFile :: e, fl3)
      else
        let '(cl2, ok, fl3) := s_cleanup n (cl ++ [(idx, d)]) fl2 in     (* the cleanup; then the record goes into the new file *)
        let '(d', e, fl4) := s_write [] b fl3 in
        (KCur cl2 (S idx) d', (if ok then [] else [ELogFile]) ++ e, fl4)
  else let '(d', e, fl1) := s_write d b fl in (same d', e, fl1).

(* a writer that is not initialised yet *)
Definition k_init (app : bool) (m : N) (n : nat) (cl : cdir) (created : bool) (b : bytes) (fl : list bool)
  : kst * list ecode * list bool :=
  let '(f1, fl1) := pop fl in                                 (* read_dir *)
  if f1 then (KInit cl created, [EWrite], fl1) else
  let idx := next_idx cl in
  let '(f2, fl2) := if app then (false, fl1) else pop fl1 in  (* rename of an old rCURRENT (not with append) *)
  if f2 then (KInit cl created, [EWrite], fl2) else
  let cl1 := if app then cl else if created then cl ++ [(idx, [])] else cl in
  let idx1 := if app then idx else if created then S idx else idx in
  let created1 := if app then created else false in
  let '(f3, fl3) := pop fl2 in                                (* open/create rCURRENT *)
  if f3 then (KInit cl1 created1, [EWrite], fl3) else
  let '(f4, fl4) := if app then pop fl3 else (false, fl3) in  (* metadata (with append) *)
  if f4 then (KInit cl1 true, [EWrite], fl4) else
  let '(cl2, ok, fl5) := s_cleanup n cl1 fl4 in               (* the cleanup *)
  if ok then k_active m n false cl2 idx1 [] b fl5 else (KInit cl2 true, [EWrite], fl5).

Definition kstep (app : bool) (m : N) (n : nat) (st : kst) (fl : list bool) (b : bytes) : kst * list ecode * list bool :=
  match st with
  | KInit cl created => k_init app m n cl created b fl
  | KCur cl idx d => k_active m n false cl idx d b fl
  | KOld cl idx d => k_active m n true cl idx d b fl
  end.

Fixpoint simk_st (app : bool) (m : N) (n : nat) (st : kst) (fl : list bool) (recs : list bytes) : kst * list ecode * list bool :=
  match recs with
  | [] => (st, [], fl)
  | b :: rest =>
    let '(st1, e1, fl1) := kstep app m n st fl b in
    let '(st2, e2, fl2) := simk_st app m n st1 fl1 rest in (st2, e1 ++ e2, fl2)
  end.

Definition k_closed (st : kst) : cdir :=
  match st with KInit cl _ => cl | KCur cl _ _ => cl | KOld cl idx d => cl ++ [(idx, d)] end.
Definition k_cur (st : kst) : option bytes :=
  match st with KInit _ created => if created then Some [] else None | KCur _ _ d => Some d | KOld _ _ _ => None end.

(* the specification as a function of oracle and records: closed files (index, content), current file, reported
   errors (with their codes), the rest of the oracle *)
Definition simk (app : bool) (m : N) (n : nat) (fl : list bool) (recs : list bytes) : cdir * option bytes * list ecode * list bool :=
  let '(st, e, fl') := simk_st app m n (KInit [] false) fl recs in (k_closed st, k_cur st, e, fl').

(* ------------------------------------------------------------------ lists: the newest n, the others *)
Definition lastn {A} (n : nat) (l : list A) : list A := rev (firstn n (rev l)).
Definition butlastn {A} (n : nat) (l : list A) : list A := rev (skipn n (rev l)).

Lemma lastn_split {A} n (l : list A) : l = butlastn n l ++ lastn n l.
Proof. unfold butlastn, lastn. rewrite <- rev_app_distr, firstn_skipn, rev_involutive. reflexivity. Qed.
Lemma lastn_length {A} n (l : list A) : length (lastn n l) <= n.
Proof. unfold lastn. rewrite rev_length. apply firstn_le_length. Qed.
Lemma lastn_length_eq {A} n (l : list A) : length (lastn n l) = Nat.min n (length l).
Proof. unfold lastn. rewrite rev_length, firstn_length, rev_length. reflexivity. Qed.

(* ------------------------------------------------------------------ the cleanup *)
(* the number of failing calls of a cleanup with this result *)
Definition okn (ok : bool) : nat := if ok then 0 else 1.

Lemma s_remove_spec : forall old fl,
  let '(rest, ok, fl') := s_remove old fl in
  acct fl fl' (okn ok) /\ exists removed, old = removed ++ rest /\ (ok = true -> rest = []).
Proof.
  induction old as [|p r IH]; intros fl; cbn [s_remove].
  - split; [apply acct_refl|]. exists []. split; [reflexivity | intros _; reflexivity].
  - pose proof (pop_used fl) as P. destruct (pop fl) as [f fl1]. cbn [fst snd] in P. destruct f.
    + split; [exact P|]. exists []. split; [reflexivity | discriminate].
    + specialize (IH fl1). destruct (s_remove r fl1) as [[rest ok] fl']. destruct IH as [A (removed & Hr & Ht)].
      split; [exact (acct_trans _ _ _ _ _ P A)|]. exists (p :: removed). split; [cbn [app]; rewrite <- Hr; reflexivity | exact Ht].
Qed.

(* what a cleanup leaves: the newest n files, and - only if it failed - older ones: a front part `older` of the
   files beyond the limit (the removals go from the newest of them to the oldest); it consumes one failing oracle
   entry iff it fails *)
Theorem s_cleanup_spec n cl fl :
  let '(cl2, ok, fl') := s_cleanup n cl fl in
  acct fl fl' (okn ok)
  /\ exists older gone, cl2 = older ++ lastn n cl /\ butlastn n cl = older ++ gone /\ (ok = true -> older = []).
Proof.
  unfold s_cleanup. pose proof (pop_used fl) as P. destruct (pop fl) as [f fl0]. cbn [fst snd] in P. destruct f.
  - split; [exact P|]. exists (butlastn n cl), []. split; [apply lastn_split|]. split; [rewrite app_nil_r; reflexivity | discriminate].
  - pose proof (s_remove_spec (skipn n (rev cl)) fl0) as S. destruct (s_remove (skipn n (rev cl)) fl0) as [[rest ok] fl'].
    destruct S as [A (removed & Hr & Ht)]. split; [exact (acct_trans _ _ _ _ _ P A)|]. exists (rev rest), (rev removed).
    split; [reflexivity|]. split; [unfold butlastn; rewrite Hr, rev_app_distr; reflexivity|]. intros E. rewrite (Ht E). reflexivity.
Qed.

(* a cleanup only deletes: every file it leaves was there, with the same content *)
Lemma s_cleanup_incl n cl fl p : In p (fst (fst (s_cleanup n cl fl))) -> In p cl.
Proof.
  pose proof (s_cleanup_spec n cl fl) as S. destruct (s_cleanup n cl fl) as [[cl2 ok] fl']. cbn [fst].
  destruct S as [_ (older & gone & -> & Hb & _)]. intros H. rewrite (lastn_split n cl), Hb.
  apply in_app_or in H. apply in_or_app. destruct H as [H|H]; [left; apply in_or_app; left; exact H | right; exact H].
Qed.

Lemma s_remove_all_false old fl : all_false fl -> exists fl', s_remove old fl = ([], true, fl') /\ all_false fl'.
Proof.
  revert fl. induction old as [|p r IH]; intros fl H; cbn [s_remove]; [eauto|].
  destruct (pop_all_false fl H) as [E1 E2]. destruct (pop fl) as [f fl1]. cbn [fst snd] in *. subst f. apply IH. exact E2.
Qed.
(* without failures: exactly the newest n files are left *)
Lemma s_cleanup_all_false n cl fl : all_false fl -> exists fl', s_cleanup n cl fl = (lastn n cl, true, fl') /\ all_false fl'.
Proof.
  intros H. unfold s_cleanup. destruct (pop_all_false fl H) as [E1 E2]. destruct (pop fl) as [f fl0]. cbn [fst snd] in *. subst f.
  destruct (s_remove_all_false (skipn n (rev cl)) fl0 E2) as [fl' [E H']]. rewrite E. exists fl'. split; [reflexivity | exact H'].
Qed.

(* ------------------------------------------------------------------ one record *)
(* the content of the file the writer writes into *)
Definition k_wcur (st : kst) : bytes := match st with KInit _ _ => [] | KCur _ _ d => d | KOld _ _ d => d end.
(* the closed files apart from the one the writer still writes into *)
Definition k_cl (st : kst) : cdir := match st with KInit cl _ => cl | KCur cl _ _ => cl | KOld cl _ _ => cl end.
(* the file that the step from st to st' closes for good (a completed rotation): its index and final content *)
Definition closes (st st' : kst) : cdir :=
  match st, st' with
  | KCur _ idx d, KCur _ idx' _ => if Nat.eqb idx idx' then [] else [(idx, d)]
  | KOld _ idx d, KCur _ idx' _ => if Nat.eqb idx idx' then [] else [(idx, d)]
  | _, _ => []
  end.

(* what one step does: the oracle entries it uses, the reports (one per failing entry), at most one record lost - and
   then reported with EWrite -; the LOG (the files closed so far, then the writer's file) grows by exactly the record
   unless it is lost; the closed files in the directory are files that were closed (or empty files left by a failed
   initialisation), unchanged: the cleanup only deletes *)
Definition kstep_ok (st : kst) (fl : list bool) (b : bytes) (r : kst * list ecode * list bool) : Prop :=
  let '(st', e, fl') := r in
  acct fl fl' (length e) /\ nlost e <= 1
  /\ concat (List.map snd (closes st st')) ++ k_wcur st' = k_wcur st ++ (if lost e then [] else b)
  /\ (forall p, In p (k_cl st') -> In p (k_cl st) \/ In p (closes st st') \/ snd p = []).

Lemma lost_cons_logfile e : lost (ELogFile :: e) = lost e.
Proof. reflexivity. Qed.
Lemma nlost_cons_logfile e : nlost (ELogFile :: e) = nlost e.
Proof. reflexivity. Qed.

Lemma k_active_ok m n (old : bool) cl idx d b fl :
  kstep_ok (if old then KOld cl idx d else KCur cl idx d) fl b (k_active m n old cl idx d b fl).
Proof.
  set (st := if old then KOld cl idx d else KCur cl idx d).
  assert (Wst : k_wcur st = d) by (unfold st; destruct old; reflexivity).
  assert (Cst : k_cl st = cl) by (unfold st; destruct old; reflexivity).
  (* the record is written into the old file: the state keeps its shape *)
  assert (W : forall fl0 errs0 (old' : bool), acct fl fl0 (length errs0) -> lost errs0 = false -> nlost errs0 = 0 ->
     (old = true -> old' = true) ->
     let '(d', e, fl1) := s_write d b fl0 in
     kstep_ok st fl b ((if old' then KOld cl idx d' else KCur cl idx d'), errs0 ++ e, fl1)).
  { intros fl0 errs0 old' Hac Hl Hnl Ho. pose proof (s_write_facts d b fl0) as S. pose proof (acct_write d b fl0) as Aw.
    destruct (s_write d b fl0) as [[d' e] fl1]. cbn [fst snd] in Aw. destruct S as [Hc Hd].
    split; [rewrite app_length; exact (acct_trans _ _ _ _ _ Hac Aw)|].
    split; [rewrite nlost_app; destruct Hc as [->| ->]; cbn; lia|].
    rewrite (lost_app_nolost _ _ Hl), Wst, Cst.
    assert (Ecl : closes st (if old' then KOld cl idx d' else KCur cl idx d') = []).
    { unfold st. destruct old, old'; cbn [closes]; rewrite ?Nat.eqb_refl; reflexivity. }
    rewrite Ecl. cbn [List.map concat app]. split; [destruct old'; cbn [k_wcur]; exact Hd|].
    intros p Hp. left. destruct old'; exact Hp. }
  unfold k_active. fold st.
  destruct (m <? N.of_nat (length d))%N.
  - pose proof (pop_used fl) as P1. destruct (pop fl) as [f1 fl1]. cbn [fst snd] in P1. destruct f1.
    + (* the rename fails *)
      pose proof (W fl1 [ELogFile] old P1 eq_refl eq_refl (fun H => H)) as S. destruct (s_write d b fl1) as [[d' e] fl2]. exact S.
    + pose proof (acct_trans _ _ _ _ _ P1 (pop_used fl1)) as P2. destruct (pop fl1) as [f2 fl2]. cbn [fst snd] in P2. destruct f2.
      * (* the creation of the new current file fails *)
        pose proof (W fl2 [ELogFile] true P2 eq_refl eq_refl (fun _ => eq_refl)) as S. destruct (s_write d b fl2) as [[d' e] fl3]. exact S.
      * (* the rotation is completed; the cleanup; the write into the new file *)
        pose proof (s_cleanup_spec n (cl ++ [(idx, d)]) fl2) as C. pose proof (s_cleanup_incl n (cl ++ [(idx, d)]) fl2) as CI.
        destruct (s_cleanup n (cl ++ [(idx, d)]) fl2) as [[cl2 ok] fl3]. cbn [fst] in CI. destruct C as [Ac _].
        pose proof (s_write_facts [] b fl3) as S. pose proof (acct_write [] b fl3) as Aw.
        destruct (s_write [] b fl3) as [[d' e] fl4]. cbn [fst snd] in Aw. destruct S as [Hc Hd].
        assert (Eok : length (if ok then [] else [ELogFile]) = okn ok /\ lost (if ok then [] else [ELogFile]) = false
                      /\ nlost (if ok then @nil ecode else [ELogFile]) = 0) by (destruct ok; repeat split).
        destruct Eok as [E1 [E2 E3]].
        split. { rewrite app_length, E1. pose proof (acct_trans _ _ _ _ _ (acct_trans _ _ _ _ _ P2 Ac) Aw) as X. cbn [Nat.add] in X. exact X. }
        split; [rewrite nlost_app, E3; destruct Hc as [->| ->]; cbn; lia|].
        rewrite (lost_app_nolost _ _ E2).
        assert (Ecl : closes st (KCur cl2 (S idx) d') = [(idx, d)]).
        { unfold st. destruct old; cbn [closes]; rewrite (proj2 (Nat.eqb_neq idx (S idx))) by lia; reflexivity. }
        rewrite Ecl, Wst, Cst. cbn [List.map concat snd k_wcur k_cl]. rewrite app_nil_r, Hd. split; [reflexivity|].
        intros p Hp. specialize (CI p Hp). apply in_app_or in CI. destruct CI as [H|[<-|[]]]; [left; exact H | right; left; left; reflexivity].
  - pose proof (W fl [] old (acct_refl fl) eq_refl eq_refl (fun H => H)) as S. destruct (s_write d b fl) as [[d' e] fl1]. exact S.
Qed.

Lemma k_init_ok ap m n cl created b fl : kstep_ok (KInit cl created) fl b (k_init ap m n cl created b fl).
Proof.
  (* a failing step of the initialisation: the closed files stay or an empty one is added *)
  assert (Fail : forall fl' cl' cr, acct fl fl' 1 -> (forall p, In p cl' -> In p cl \/ snd p = []) ->
            kstep_ok (KInit cl created) fl b (KInit cl' cr, [EWrite], fl')).
  { intros fl' cl' cr Hac Hin. split; [exact Hac|]. split; [cbn; lia|]. split; [reflexivity|].
    intros p Hp. destruct (Hin p Hp) as [H|H]; [left; exact H | right; right; exact H]. }
  assert (Go : forall fl' cl' idx', acct fl fl' 0 -> (forall p, In p cl' -> In p cl \/ snd p = []) ->
            kstep_ok (KInit cl created) fl b (k_active m n false cl' idx' [] b fl')).
  { intros fl' cl' idx' Hac Hin. pose proof (k_active_ok m n false cl' idx' [] b fl') as K. cbv iota in K.
    destruct (k_active m n false cl' idx' [] b fl') as [[st' e] fl2]. destruct K as [Hk [Hl [Hst Hcl]]].
    split; [exact (acct_trans _ _ _ _ _ Hac Hk)|]. split; [exact Hl|].
    assert (Ecl : concat (List.map snd (closes (KCur cl' idx' []) st')) = []).
    { destruct st' as [| cl3 idx3 d3|]; cbn [closes]; try reflexivity. destruct (Nat.eqb idx' idx3); reflexivity. }
    rewrite Ecl in Hst. cbn [k_wcur app] in *. split; [cbn [closes List.map concat app]; exact Hst|].
    intros p Hp. destruct (Hcl p Hp) as [H|[H|H]].
    - cbn [k_cl] in H. destruct (Hin p H) as [H1|H1]; [left; exact H1 | right; right; exact H1].
    - right. right. destruct st' as [| cl3 idx3 d3|]; cbn [closes] in H; try contradiction.
      destruct (Nat.eqb idx' idx3); [contradiction|]. destruct H as [<-|[]]. reflexivity.
    - right. right. exact H. }
  (* the closed files after the rename of an old rCURRENT *)
  set (idx := next_idx cl).
  set (cl1 := if ap then cl else if created then cl ++ [(idx, [])] else cl).
  assert (Hcl1 : forall p, In p cl1 -> In p cl \/ snd p = []).
  { unfold cl1. intros p Hp. destruct ap; [left; exact Hp|]. destruct created; [|left; exact Hp].
    apply in_app_or in Hp. destruct Hp as [H|[<-|[]]]; [left; exact H | right; reflexivity]. }
  assert (Hid : forall p, In p cl -> In p cl \/ snd p = []) by (intros p Hp; left; exact Hp).
  unfold k_init. fold idx. fold cl1.
  pose proof (pop_used fl) as P1. destruct (pop fl) as [f1 fl1]. cbn [fst snd] in P1. destruct f1; [apply Fail; assumption|].
  pose proof (acct_trans _ _ _ _ _ P1 (proj2 (pop_if_used ap fl1))) as P2.
  destruct (if ap then (false, fl1) else pop fl1) as [f2 fl2]. cbn [fst snd] in P2. destruct f2; [apply Fail; assumption|].
  pose proof (acct_trans _ _ _ _ _ P2 (pop_used fl2)) as P3. destruct (pop fl2) as [f3 fl3]. cbn [fst snd] in P3.
  destruct f3; [apply Fail; assumption|].
  pose proof (acct_trans _ _ _ _ _ P3 (proj1 (pop_if_used ap fl3))) as P4.
  destruct (if ap then pop fl3 else (false, fl3)) as [f4 fl4]. cbn [fst snd] in P4. destruct f4; [apply Fail; assumption|].
  (* the cleanup and what follows *)
  pose proof (s_cleanup_spec n cl1 fl4) as C. pose proof (s_cleanup_incl n cl1 fl4) as CI.
  destruct (s_cleanup n cl1 fl4) as [[cl2 ok] fl5]. cbn [fst] in CI. destruct C as [Ac _].
  assert (Hcl2 : forall p, In p cl2 -> In p cl \/ snd p = []) by (intros p Hp; apply Hcl1, CI, Hp).
  pose proof (acct_trans _ _ _ _ _ P4 Ac) as P5. cbn [Nat.add] in P5.
  destruct ok; [apply Go; assumption | apply Fail; assumption].
Qed.

Theorem kstep_is_ok app m n st fl b : kstep_ok st fl b (kstep app m n st fl b).
Proof.
  destruct st as [cl created|cl idx d|cl idx d]; cbn [kstep].
  - apply k_init_ok.
  - apply (k_active_ok m n false cl idx d b fl).
  - apply (k_active_ok m n true cl idx d b fl).
Qed.

(* ------------------------------------------------------------------ whole lists of records *)
(* the files closed for good during the run, in the order in which they were closed *)
Fixpoint klog (ap : bool) (m : N) (n : nat) (st : kst) (fl : list bool) (recs : list bytes) : cdir :=
  match recs with
  | [] => []
  | b :: rest => let '(st1, _, fl1) := kstep ap m n st fl b in closes st st1 ++ klog ap m n st1 fl1 rest
  end.
(* per record: the record, the reports of its log call, the oracle entries its log call consumed *)
Fixpoint ktrace (ap : bool) (m : N) (n : nat) (st : kst) (fl : list bool) (recs : list bytes) : list entry :=
  match recs with
  | [] => []
  | b :: rest =>
    let '(st1, e1, fl1) := kstep ap m n st fl b in
    {| t_rec := b; t_errs := e1; t_used := firstn (length fl - length fl1) fl |} :: ktrace ap m n st1 fl1 rest
  end.

(* The run as a specification of the family FaultRotSpec.spec: its state carries the files closed for good so far; their
   contents, then the content of the file the writer writes into, are the stream *)
Definition kstream (s : cdir * kst) : bytes := concat (List.map snd (fst s)) ++ k_wcur (snd s).
Definition kstep_log (ap : bool) (m : N) (n : nat) (s : cdir * kst) (fl : list bool) (b : bytes) : (cdir * kst) * list ecode * list bool :=
  let '(st', e, fl') := kstep ap m n (snd s) fl b in ((fst s ++ closes (snd s) st', st'), e, fl').
Definition simk_log (ap : bool) (m : N) (n : nat) (s : cdir * kst) (fl : list bool) (recs : list bytes) : (cdir * kst) * list ecode * list bool :=
  let '(st', e, fl') := simk_st ap m n (snd s) fl recs in ((fst s ++ klog ap m n (snd s) fl recs, st'), e, fl').

Lemma simk_log_nil ap m n s fl : simk_log ap m n s fl [] = (s, [], fl).
Proof. destruct s as [lg st]. unfold simk_log. cbn [simk_st klog fst snd]. rewrite app_nil_r. reflexivity. Qed.
Lemma simk_log_cons ap m n s fl b rest : simk_log ap m n s fl (b :: rest) =
  let '(s1, e1, fl1) := kstep_log ap m n s fl b in let '(s2, e2, fl2) := simk_log ap m n s1 fl1 rest in (s2, e1 ++ e2, fl2).
Proof.
  unfold simk_log, kstep_log. cbn [simk_st klog]. destruct (kstep ap m n (snd s) fl b) as [[st1 e1] fl1]. cbn [fst snd].
  destruct (simk_st ap m n st1 fl1 rest) as [[st2 e2] fl2]. rewrite app_assoc. reflexivity.
Qed.
Lemma ktrace_log_cons ap m n (s : cdir * kst) fl b rest : ktrace ap m n (snd s) fl (b :: rest) =
  let '(s1, e1, fl1) := kstep_log ap m n s fl b in
  {| t_rec := b; t_errs := e1; t_used := firstn (length fl - length fl1) fl |} :: ktrace ap m n (snd s1) fl1 rest.
Proof. unfold kstep_log. cbn [ktrace]. destruct (kstep ap m n (snd s) fl b) as [[st1 e1] fl1]. reflexivity. Qed.
Lemma kstep_log_ok ap m n s fl b : stream_step_ok kstream s fl b (kstep_log ap m n s fl b).
Proof.
  unfold kstep_log. pose proof (kstep_is_ok ap m n (snd s) fl b) as K. destruct (kstep ap m n (snd s) fl b) as [[st' e] fl'].
  destruct K as [[used [Hu He]] [Hl [Hs _]]]. exists used. split; [exact Hu|]. split; [symmetry; exact He|]. split; [exact Hl|].
  unfold kstream. cbn [fst snd]. rewrite map_app, concat_app, <- !app_assoc, Hs. reflexivity.
Qed.

Definition cleanup_spec (ap : bool) (m : N) (n : nat) : spec :=
  {| sp_adv := fun (c : unit) (_ : bytes) => c; sp_bytes := fun b => b; sp_stream := kstream;
     sp_step := fun _ => kstep_log ap m n; sp_sim := fun _ => simk_log ap m n; sp_trace := fun _ s => ktrace ap m n (snd s);
     sp_sim_nil := fun _ => simk_log_nil ap m n; sp_sim_cons := fun _ => simk_log_cons ap m n;
     sp_trace_nil := fun _ _ _ => eq_refl; sp_trace_cons := fun _ => ktrace_log_cons ap m n;
     sp_step_ok := fun _ => kstep_log_ok ap m n |}.

Lemma simk_st_app ap m n : forall recs1 recs2 st fl,
  simk_st ap m n st fl (recs1 ++ recs2)
  = let '(st1, e1, fl1) := simk_st ap m n st fl recs1 in
    let '(st2, e2, fl2) := simk_st ap m n st1 fl1 recs2 in (st2, e1 ++ e2, fl2).
Proof.
  intros recs1 recs2 st fl. pose proof (sim_app_gen (cleanup_spec ap m n) recs1 recs2 tt ([], st) fl) as A.
  cbn [cleanup_spec sp_sim sp_rec] in A. unfold simk_log in A. cbn [fst snd] in A.
  destruct (simk_st ap m n st fl (recs1 ++ recs2)) as [[st3 e3] fl3]. destruct (simk_st ap m n st fl recs1) as [[st1 e1] fl1].
  cbn [fst snd] in A. destruct (simk_st ap m n st1 fl1 recs2) as [[st2 e2] fl2]. injection A as _ -> -> ->. reflexivity.
Qed.

(* the files closed for good only become more; every closed file in the directory was there before, is one of them (same
   index, same content), or is an empty file left by a failed initialisation *)
Definition kfiles_from (a b : cdir * kst) : Prop :=
  (forall p, In p (fst a) -> In p (fst b))
  /\ (forall p, In p (k_cl (snd b)) -> In p (k_cl (snd a)) \/ In p (fst b) \/ snd p = []).

Lemma simk_log_files ap m n recs s fl : kfiles_from s (fst (fst (simk_log ap m n s fl recs))).
Proof.
  apply (sim_rel_gen (cleanup_spec ap m n) kfiles_from) with (c := tt).
  - intros a. split; [auto | intros p Hp; left; exact Hp].
  - intros a b c [A1 A2] [B1 B2]. split; [auto|]. intros p Hp. destruct (B2 p Hp) as [H|[H|H]]; [|right; left; exact H | right; right; exact H].
    destruct (A2 p H) as [G|[G|G]]; [left; exact G | right; left; apply B1; exact G | right; right; exact G].
  - intros c0 a fl0 b. cbn [cleanup_spec sp_step]. unfold kstep_log.
    pose proof (kstep_is_ok ap m n (snd a) fl0 b) as K. destruct (kstep ap m n (snd a) fl0 b) as [[st' e] fl']. cbn [fst snd].
    destruct K as [_ [_ [_ Hc]]]. split; [intros p Hp; apply in_or_app; left; exact Hp|].
    intros p Hp. destruct (Hc p Hp) as [G|[G|G]]; [left; exact G | right; left; apply in_or_app; right; exact G | right; right; exact G].
Qed.

(* (2) Only records during whose own log call a failing call was consumed can be missing; the log consists of the
   other records, in order, each once.  LOG = the contents of the files closed for good, in order, then the content of the
   file the writer writes into *)
Theorem lost_only_around_failures_k ap m n fl recs :
  let '(st', e, fl') := simk_st ap m n (KInit [] false) fl recs in
  let t := ktrace ap m n (KInit [] false) fl recs in
  let lg := klog ap m n (KInit [] false) fl recs in
  List.map t_rec t = recs
  /\ fl = concat (List.map t_used t) ++ fl'
  /\ e = concat (List.map t_errs t)
  /\ concat (List.map snd lg) ++ k_wcur st' = concat (List.map t_kept t)
  /\ (forall p, In p (k_cl st') -> In p lg \/ snd p = [])
  /\ (forall x, In x t -> length (t_errs x) = ntrue (t_used x))
  /\ (forall x, In x t -> (forall f, In f (t_used x) -> f = false) -> t_errs x = [] /\ t_kept x = t_rec x)
  /\ (forall x, In x t -> t_kept x <> t_rec x -> In true (t_used x) /\ In EWrite (t_errs x)).
Proof.
  pose proof (lost_only_around_failures_gen (cleanup_spec ap m n) tt ([], KInit [] false) fl recs eq_refl) as T.
  pose proof (simk_log_files ap m n recs ([], KInit [] false) fl) as [_ Hf].
  cbn [cleanup_spec sp_sim sp_trace sp_bytes sp_stream] in T. rewrite map_id in T. unfold simk_log in T, Hf. cbn [fst snd app] in T, Hf.
  destruct (simk_st ap m n (KInit [] false) fl recs) as [[st' e] fl']. cbn [fst snd kstream] in T, Hf. cbv zeta in T |- *.
  destruct T as [H1 [H2 [H3 [H4 H5]]]].
  split; [exact H1|]. split; [exact H2|]. split; [exact H3|]. split; [exact H4|].
  split; [intros p Hp; destruct (Hf p Hp) as [[]|H]; exact H | exact H5].
Qed.

(* (3) the log is the concatenation of a subsequence of the records (no duplication, no reordering); each missing
   record is one reported EWrite: the number of missing records is at most the number of reported errors *)
Theorem loss_is_reported_k ap m n : forall recs st fl,
  let '(st', e, _) := simk_st ap m n st fl recs in
  exists kept, Subseq kept recs
    /\ concat (List.map snd (klog ap m n st fl recs)) ++ k_wcur st' = k_wcur st ++ concat kept
    /\ length recs = length kept + nlost e /\ nlost e <= length e.
Proof.
  intros recs st fl. pose proof (loss_is_reported_gen (cleanup_spec ap m n) recs tt ([], st) fl) as T.
  cbn [cleanup_spec sp_sim sp_bytes sp_stream] in T. rewrite map_id in T. unfold simk_log in T. cbn [fst snd app] in T.
  destruct (simk_st ap m n st fl recs) as [[st' e] fl']. exact T.
Qed.

(* ------------------------------------------------------------------ failures inside the cleanup *)
(* (v) AT A ROTATION whose rename and create succeed, whatever happens inside the cleanup: the state is switched to the
   new rCURRENT, the record is lost only if its OWN write call fails, a failed cleanup is reported with one ELogFile,
   and the cleanup has only deleted: the newest n closed files are there and - only after a failure - a front part
   `older` of the surplus files as well, i.e. MORE files than the limit, never fewer *)
Theorem cleanup_fault_loses_no_record m n (old : bool) (cl : cdir) idx (d b : bytes) fl2 cl2 ok fl3 :
  (m <? N.of_nat (length d))%N = true ->
  s_cleanup n (cl ++ [(idx, d)]) fl2 = (cl2, ok, fl3) ->
  let f := fst (wr_pop b fl3) in
  k_active m n old cl idx d b (false :: false :: fl2)
  = (KCur cl2 (S idx) (if f then [] else b), (if ok then [] else [ELogFile]) ++ (if f then [EWrite] else []), snd (wr_pop b fl3))
  /\ lost ((if ok then [] else [ELogFile]) ++ (if f then [EWrite] else [])) = f
  /\ exists older gone, cl2 = older ++ lastn n (cl ++ [(idx, d)]) /\ butlastn n (cl ++ [(idx, d)]) = older ++ gone
       /\ (ok = true -> older = []) /\ Nat.min n (S (length cl)) <= length cl2.
Proof.
  intros Hm Ec. cbv zeta. unfold k_active. rewrite Hm. cbn [pop hd tl]. rewrite Ec.
  pose proof (s_cleanup_spec n (cl ++ [(idx, d)]) fl2) as C. rewrite Ec in C.
  destruct C as [_ (older & gone & Hcl2 & Hb & Hct)].
  unfold s_write. destruct (wr_pop b fl3) as [f fl4]. cbn [fst snd].
  split; [destruct f; reflexivity|]. split; [destruct ok, f; reflexivity|].
  exists older, gone. split; [exact Hcl2|]. split; [exact Hb|]. split; [exact Hct|].
  rewrite Hcl2, app_length, lastn_length_eq, app_length. cbn [length]. lia.
Qed.

(* (vi) AT THE INITIALISATION a failure inside the cleanup loses the record: all the calls before the cleanup succeed
   (read_dir, the rename [no append], open, metadata [append]: three calls in both modes), the cleanup fails: the
   record is lost and reported with EWrite although its write call was never made; rCURRENT exists (empty) *)
Theorem init_cleanup_fault_loses_record (ap : bool) m n (cl : cdir) (created : bool) (b : bytes) fl4 cl2 fl5 :
  let idx := next_idx cl in
  let cl1 := if ap then cl else if created then cl ++ [(idx, [])] else cl in
  s_cleanup n cl1 fl4 = (cl2, false, fl5) ->
  k_init ap m n cl created b (false :: false :: false :: fl4) = (KInit cl2 true, [EWrite], fl5).
Proof. cbv zeta. intros Ec. unfold k_init. destruct ap; cbn [pop hd tl]; rewrite Ec; reflexivity. Qed.

(* ------------------------------------------------------------------ (4) recovery: the limit is restored *)
(* in the state KOld a rotation is pending *)
Definition kpending_ok (m : N) (st : kst) : Prop :=
  match st with KOld _ _ d => (m <? N.of_nat (length d))%N = true | _ => True end.
(* the next log call initialises or rotates - and therefore runs the cleanup *)
Definition krotates (m : N) (st : kst) : bool :=
  match st with KInit _ _ => true | KCur _ _ d => (m <? N.of_nat (length d))%N | KOld _ _ d => (m <? N.of_nat (length d))%N end.
(* the limit of the cleanup strategy holds *)
Definition limit_ok (n : nat) (st : kst) : Prop := length (k_closed st) <= n.

Lemma k_active_pending m n (old : bool) cl idx d b fl :
  kpending_ok m (if old then KOld cl idx d else KCur cl idx d) -> kpending_ok m (fst (fst (k_active m n old cl idx d b fl))).
Proof.
  intros P. unfold k_active. destruct (m <? N.of_nat (length d))%N eqn:Em.
  - destruct (pop fl) as [f1 fl1]. destruct f1.
    + pose proof (s_write_pending d b fl1) as L. destruct (s_write d b fl1) as [[d' e] fl2]. cbn [fst].
      destruct old; cbn [kpending_ok]; [lia | exact I].
    + destruct (pop fl1) as [f2 fl2]. destruct f2.
      * pose proof (s_write_pending d b fl2) as L. destruct (s_write d b fl2) as [[d' e] fl3]. cbn [fst kpending_ok]. lia.
      * destruct (s_cleanup n (cl ++ [(idx, d)]) fl2) as [[cl2 ok] fl3]. destruct (s_write [] b fl3) as [[d' e] fl4]. exact I.
  - pose proof (s_write_pending d b fl) as L. destruct (s_write d b fl) as [[d' e] fl1]. cbn [fst].
    destruct old; cbn [kpending_ok] in *; [congruence | exact I].
Qed.

Lemma kstep_pending ap m n st fl b : kpending_ok m st -> kpending_ok m (fst (fst (kstep ap m n st fl b))).
Proof.
  intros P. destruct st as [cl created|cl idx d|cl idx d]; cbn [kstep].
  - unfold k_init. destruct (pop fl) as [f1 fl1]. destruct f1; [exact I|].
    destruct (if ap then (false, fl1) else pop fl1) as [f2 fl2]. destruct f2; [exact I|].
    destruct (pop fl2) as [f3 fl3]. destruct f3; [exact I|].
    destruct (if ap then pop fl3 else (false, fl3)) as [f4 fl4]. destruct f4; [exact I|].
    destruct (s_cleanup n _ fl4) as [[cl2 ok] fl5]. destruct ok; [|exact I].
    apply (k_active_pending m n false). exact I.
  - apply (k_active_pending m n false cl idx d b fl). exact I.
  - apply (k_active_pending m n true cl idx d b fl). exact P.
Qed.

Lemma simk_st_pending ap m n : forall recs st fl, kpending_ok m st -> kpending_ok m (fst (fst (simk_st ap m n st fl recs))).
Proof.
  induction recs as [|b rest IH]; intros st fl P; cbn [simk_st]; [exact P|].
  pose proof (kstep_pending ap m n st fl b P) as P1. destruct (kstep ap m n st fl b) as [[st1 e1] fl1]. cbn [fst] in P1.
  specialize (IH st1 fl1 P1). destruct (simk_st ap m n st1 fl1 rest) as [[st2 e2] fl2]. exact IH.
Qed.

Lemma k_active_recovered m n (old : bool) (cl : cdir) idx (d b : bytes) fl :
  all_false fl -> (old = true -> (m <? N.of_nat (length d))%N = true) ->
  exists fl', all_false fl' /\
    k_active m n old cl idx d b fl
    = ((if (m <? N.of_nat (length d))%N then KCur (lastn n (cl ++ [(idx, d)])) (S idx) b else KCur cl idx (d ++ b)), [], fl').
Proof.
  intros H0 Ho. unfold k_active. destruct (m <? N.of_nat (length d))%N eqn:Em.
  - destruct (pop_all_false fl H0) as [E1 E2]. destruct (pop fl) as [f1 fl1]. cbn [fst snd] in *. subst f1.
    destruct (pop_all_false fl1 E2) as [E3 E4]. destruct (pop fl1) as [f2 fl2]. cbn [fst snd] in *. subst f2.
    destruct (s_cleanup_all_false n (cl ++ [(idx, d)]) fl2 E4) as [fl3 [Ec H3]]. rewrite Ec.
    pose proof (s_write_all_false [] b fl3 H3) as S. destruct (s_write [] b fl3) as [[d' e] fl4]. destruct S as [-> [-> S3]].
    exists fl4. split; [exact S3 | reflexivity].
  - pose proof (s_write_all_false d b fl H0) as S. destruct (s_write d b fl) as [[d' e] fl1]. destruct S as [-> [-> S3]].
    destruct old; [specialize (Ho eq_refl); congruence|]. exists fl1. split; [exact S3 | reflexivity].
Qed.

(* one record when no more failures come: nothing is reported, the record is appended to the log, the writer is on
   rCURRENT; if the call initialises or rotates, the cleanup gets through and the limit holds; otherwise the closed
   files stay as they are *)
Lemma kstep_recovered ap m n st fl b : all_false fl -> kpending_ok m st ->
  let '(st', e, fl') := kstep ap m n st fl b in
  e = [] /\ all_false fl' /\ (exists cl idx d, st' = KCur cl idx d)
  /\ (krotates m st = true -> limit_ok n st')
  /\ (krotates m st = false -> k_closed st' = k_closed st).
Proof.
  intros Hf P.
  assert (A : forall (old : bool) (cl : cdir) idx (d : bytes) fl0, all_false fl0 -> (old = true -> (m <? N.of_nat (length d))%N = true) ->
     let '(st', e, fl') := k_active m n old cl idx d b fl0 in
     e = [] /\ all_false fl' /\ (exists cl' idx' d', st' = KCur cl' idx' d')
     /\ ((m <? N.of_nat (length d))%N = true -> limit_ok n st')
     /\ ((m <? N.of_nat (length d))%N = false -> k_closed st' = cl)).
  { intros old cl idx d fl0 H0 Ho. destruct (k_active_recovered m n old cl idx d b fl0 H0 Ho) as [fl' [H' E]]. rewrite E.
    split; [reflexivity|]. split; [exact H'|]. destruct (m <? N.of_nat (length d))%N.
    - split; [eauto|]. split; [intros _; unfold limit_ok; cbn [k_closed]; apply lastn_length | discriminate].
    - split; [eauto|]. split; [discriminate | reflexivity]. }
  destruct st as [cl created|cl idx d|cl idx d]; cbn [kstep krotates].
  - unfold k_init.
    destruct (pop_all_false fl Hf) as [E1 E2]. destruct (pop fl) as [f1 fl1]. cbn [fst snd] in *. subst f1.
    pose proof (proj2 (pop_if_all_false ap fl1 E2)) as X2.
    destruct (if ap then (false, fl1) else pop fl1) as [f2 fl2]. cbn [fst snd] in X2. destruct X2 as [-> E3].
    destruct (pop_all_false fl2 E3) as [E4 E5]. destruct (pop fl2) as [f3 fl3]. cbn [fst snd] in *. subst f3.
    pose proof (proj1 (pop_if_all_false ap fl3 E5)) as X4.
    destruct (if ap then pop fl3 else (false, fl3)) as [f4 fl4]. cbn [fst snd] in X4. destruct X4 as [-> E6].
    destruct (s_cleanup_all_false n (if ap then cl else if created then cl ++ [(next_idx cl, [])] else cl) fl4 E6) as [fl5 [Ec H5]].
    rewrite Ec.
    pose proof (A false (lastn n (if ap then cl else if created then cl ++ [(next_idx cl, [])] else cl))
                  (if ap then next_idx cl else if created then S (next_idx cl) else next_idx cl) [] fl5 H5
                  (fun H => False_ind _ (Bool.diff_false_true H))) as S.
    destruct (k_active m n false _ _ [] b fl5) as [[st' e] fl']. destruct S as [S1 [S2 [S3 [_ S5]]]].
    split; [exact S1|]. split; [exact S2|]. split; [exact S3|]. split; [|discriminate].
    intros _. unfold limit_ok. rewrite S5; [apply lastn_length|]. cbn [length]. apply N.ltb_ge. apply N.le_0_l.
  - pose proof (A false cl idx d fl Hf (fun H => False_ind _ (Bool.diff_false_true H))) as S.
    destruct (k_active m n false cl idx d b fl) as [[st' e] fl']. exact S.
  - cbn [kpending_ok] in P. pose proof (A true cl idx d fl Hf (fun _ => P)) as S.
    destruct (k_active m n true cl idx d b fl) as [[st' e] fl']. destruct S as [S1 [S2 [S3 [S4 _]]]].
    split; [exact S1|]. split; [exact S2|]. split; [exact S3|]. split; [exact S4|]. rewrite P. discriminate.
Qed.

(* Once no more failures come (the rest of the oracle is empty or all `false`): nothing more is reported, every further
   record is in the log, a limit that holds keeps holding, and after the first record the writer is on rCURRENT *)
Theorem recovery_cleanup_spec ap m n : forall recs st fl, all_false fl -> kpending_ok m st ->
  let '(st', e, fl') := simk_st ap m n st fl recs in
  e = [] /\ all_false fl'
  /\ concat (List.map snd (klog ap m n st fl recs)) ++ k_wcur st' = k_wcur st ++ concat recs
  /\ (limit_ok n st -> limit_ok n st')
  /\ (recs <> [] -> exists cl idx d, st' = KCur cl idx d).
Proof.
  induction recs as [|b rest IH]; intros st fl Hf P; cbn [simk_st klog].
  - cbn. rewrite app_nil_r. repeat split; try assumption; [intros H; exact H | intros H; contradiction].
  - pose proof (kstep_recovered ap m n st fl b Hf P) as S. pose proof (kstep_is_ok ap m n st fl b) as K.
    destruct (kstep ap m n st fl b) as [[st1 e1] fl1]. destruct S as [-> [Hf1 [[cl1 [idx1 [d1 Est]]] [Hr Hn]]]].
    destruct K as [_ [_ [Hs _]]]. cbn [lost existsb] in Hs.
    assert (P1 : kpending_ok m st1) by (rewrite Est; exact I).
    specialize (IH st1 fl1 Hf1 P1). destruct (simk_st ap m n st1 fl1 rest) as [[st2 e2] fl2] eqn:Er.
    destruct IH as [-> [Hf2 [Hs2 [Hl2 Hc2]]]].
    split; [reflexivity|]. split; [exact Hf2|].
    split; [rewrite map_app, concat_app, <- app_assoc, Hs2, app_assoc, Hs; cbn [concat]; rewrite <- app_assoc; reflexivity|].
    split.
    + intros L. apply Hl2. destruct (krotates m st) eqn:Ek; [apply Hr; reflexivity|]. unfold limit_ok. rewrite (Hn eq_refl). exact L.
    + intros _. destruct rest as [|b2 rest2]; [|apply Hc2; discriminate].
      cbn [simk_st] in Er. injection Er as <- _. eauto.
Qed.

(* ... and THE LIMIT IS RESTORED by the next initialisation or rotation: if, after the records recs1, the next log call
   initialises or rotates (krotates), then after it - and after whatever records follow - at most n closed files exist *)
Theorem cleanup_limit_restored_spec ap m n recs1 b recs2 st fl :
  all_false fl -> kpending_ok m st ->
  krotates m (fst (fst (simk_st ap m n st fl recs1))) = true ->
  let '(st', e, fl') := simk_st ap m n st fl (recs1 ++ b :: recs2) in
  e = [] /\ all_false fl' /\ limit_ok n st' /\ exists cl idx d, st' = KCur cl idx d.
Proof.
  intros Hf P. rewrite simk_st_app.
  pose proof (recovery_cleanup_spec ap m n recs1 st fl Hf P) as R1. pose proof (simk_st_pending ap m n recs1 st fl P) as P1.
  destruct (simk_st ap m n st fl recs1) as [[st1 e1] fl1]. cbn [fst] in *. destruct R1 as [-> [Hf1 _]]. intros Hk.
  cbn [simk_st].
  pose proof (kstep_recovered ap m n st1 fl1 b Hf1 P1) as S. pose proof (kstep_pending ap m n st1 fl1 b P1) as P2.
  destruct (kstep ap m n st1 fl1 b) as [[st2 e2] fl2]. cbn [fst] in P2. destruct S as [-> [Hf2 [[cl2 [idx2 [d2 Est]]] [Hr _]]]].
  specialize (Hr Hk).
  pose proof (recovery_cleanup_spec ap m n recs2 st2 fl2 Hf2 P2) as R2.
  destruct (simk_st ap m n st2 fl2 recs2) as [[st3 e3] fl3] eqn:E3. destruct R2 as [-> [Hf3 [_ [Hl3 Hc3]]]].
  split; [reflexivity|]. split; [exact Hf3|]. split; [exact (Hl3 Hr)|].
  destruct recs2 as [|b2 r2]; [cbn [simk_st] in E3; injection E3 as <- _; eauto | apply Hc3; discriminate].
Qed.

(* without failures the limit holds from the start *)
Corollary no_faults_cleanup ap m n recs :
  let '(st, e, _) := simk_st ap m n (KInit [] false) [] recs in
  e = [] /\ limit_ok n st /\ concat (List.map snd (klog ap m n (KInit [] false) [] recs)) ++ k_wcur st = concat recs.
Proof.
  assert (Hf : all_false []) by (intros f []).
  pose proof (recovery_cleanup_spec ap m n recs (KInit [] false) [] Hf I) as R.
  destruct (simk_st ap m n (KInit [] false) [] recs) as [[st e] fl']. destruct R as [-> [_ [Hs [Hl _]]]].
  split; [reflexivity|]. split; [apply Hl; unfold limit_ok; cbn; lia | exact Hs].
Qed.

Print Assumptions lost_only_around_failures_k.
Print Assumptions loss_is_reported_k.
Print Assumptions cleanup_fault_loses_no_record.
Print Assumptions init_cleanup_fault_loses_record.
Print Assumptions cleanup_limit_restored_spec.
