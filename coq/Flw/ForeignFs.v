(* Foreign files in the directory, file-system level.
   `embed fn fi f` is the file system f put on top of a stock of other directory entries fn whose inodes fi
   were allocated before: the entries of f come first in the directory list (new entries are always put in
   front), the inode numbers of f are shifted by the number of the inodes of the stock.
   Every primitive that is applied to names outside the stock commutes with the embedding - as an equation. *)
Require Import FL.Base.Bytes FL.Base.BytesFacts FL.Fs.Fs FL.Fs.FsFacts.
Open Scope nat_scope.

(* a finite list of names: no name twice, no name accepted by a test - as boolean functions, for lists that are given *)
Fixpoint nodupb (l : list bytes) : bool :=
  match l with [] => true | x :: r => negb (existsb (beq x) r) && nodupb r end.

Lemma nodupb_sound l : nodupb l = true -> NoDup l.
Proof.
  induction l as [|x r IH]; cbn [nodupb]; [constructor|]. intros H. apply andb_true_iff in H. destruct H as [Hx Hr].
  constructor; [|exact (IH Hr)]. intros Hin. apply negb_true_iff in Hx.
  assert (E : existsb (beq x) r = true) by (apply existsb_exists; exists x; split; [exact Hin | apply beq_refl]).
  congruence.
Qed.

Lemma forallb_false (f : bytes -> bool) l : forallb (fun n => negb (f n)) l = true -> forall n, In n l -> f n = false.
Proof. intros H n Hn. apply negb_true_iff. exact (proj1 (forallb_forall _ l) H n Hn). Qed.

Section Embed.
Variable fn : list (bytes * nat).      (* the directory entries of the stock *)
Variable fi : list file.               (* its inodes *)

Definition fk : nat := length fi.
Definition shift (p : bytes * nat) : bytes * nat := (fst p, fk + snd p).
Definition embed (f : fs) : fs := {| names := List.map shift (names f) ++ fn; inodes := fi ++ inodes f |}.
Definition stock : fs := {| names := fn; inodes := fi |}.
Definition fnames : list bytes := List.map fst fn.

Lemma stock_embed : embed empty_fs = stock.
Proof. unfold embed, stock. cbn. rewrite app_nil_r. reflexivity. Qed.

Lemma lookup_embed f n :
  lookup (embed f) n = match lookup f n with Some i => Some (fk + i) | None => lookup stock n end.
Proof.
  unfold lookup. cbn [names embed stock]. induction (names f) as [|[m j] l IH]; cbn [List.map app find fst snd shift].
  - reflexivity.
  - destruct (beq m n); [reflexivity | exact IH].
Qed.

Lemma lookup_stock_none n : ~ In n fnames -> lookup stock n = None.
Proof.
  intros H. unfold lookup. cbn [names stock].
  destruct (find (fun p => beq (fst p) n) fn) as [p|] eqn:E; [|reflexivity].
  apply find_some in E. destruct E as [I B]. apply beq_eq in B. exfalso. apply H. subst n. apply in_map. exact I.
Qed.

Lemma lookup_embed_own f n : ~ In n fnames ->
  lookup (embed f) n = match lookup f n with Some i => Some (fk + i) | None => None end.
Proof. intros H. rewrite lookup_embed, (lookup_stock_none n H). reflexivity. Qed.

Lemma lookup_embed_stock f n : lookup f n = None -> lookup (embed f) n = lookup stock n.
Proof. intros H. rewrite lookup_embed, H. reflexivity. Qed.

Lemma inode_embed f i : inode (embed f) (fk + i) = inode f i.
Proof. unfold inode, embed, fk. cbn [inodes]. rewrite app_nth2 by lia. f_equal. lia. Qed.

Lemma inode_embed_stock f j : j < fk -> inode (embed f) j = inode stock j.
Proof. intros H. unfold inode, embed, stock. cbn [inodes]. apply app_nth1. exact H. Qed.

Lemma content_embed f i : content (embed f) (fk + i) = content f i.
Proof. unfold content. rewrite inode_embed. reflexivity. Qed.

Lemma upd_embed (l : list file) i x : upd (fi ++ l) (fk + i) x = fi ++ upd l i x.
Proof. unfold fk. induction fi as [|y r IH]; cbn [length app upd plus]; [reflexivity|]. f_equal. exact IH. Qed.

Lemma file_of_embed_own f n : ~ In n fnames -> file_of (embed f) n = file_of f n.
Proof.
  intros H. unfold file_of. rewrite lookup_embed_own by exact H. destruct (lookup f n) as [i|]; [|reflexivity].
  rewrite inode_embed. reflexivity.
Qed.

Lemma is_reg_file_embed_own f n : ~ In n fnames -> is_reg_file (embed f) n = is_reg_file f n.
Proof. intros H. unfold is_reg_file. rewrite file_of_embed_own by exact H. reflexivity. Qed.

(* a name that f knows is found in f, whatever the stock holds *)
Lemma file_of_embed_known f n i : lookup f n = Some i -> file_of (embed f) n = file_of f n.
Proof. intros H. unfold file_of. rewrite lookup_embed, H, inode_embed. reflexivity. Qed.

(* a name that f does not know is looked up in the stock; its inode is the one of the stock *)
Lemma file_of_embed_stock f n : lookup f n = None -> (forall j, lookup stock n = Some j -> j < fk) ->
  file_of (embed f) n = file_of stock n.
Proof.
  intros H B. unfold file_of. rewrite lookup_embed_stock by exact H. destruct (lookup stock n) as [j|] eqn:E; [|reflexivity].
  rewrite inode_embed_stock by (apply B; reflexivity). reflexivity.
Qed.

Lemma append_ino_embed f i b : append_ino (embed f) (fk + i) b = embed (append_ino f i b).
Proof.
  unfold append_ino. rewrite content_embed, inode_embed. unfold embed. cbn [names inodes].
  rewrite upd_embed. reflexivity.
Qed.

Lemma filter_stock (p : bytes * nat -> bool) : (forall x, In (fst x) fnames -> p x = true) -> filter p fn = fn.
Proof.
  unfold fnames. induction fn as [|x l IH]; intros H; cbn [filter]; [reflexivity|].
  rewrite H by (left; reflexivity). f_equal. apply IH. intros y Hy. apply H. right. exact Hy.
Qed.

Lemma filter_shift (p : bytes * nat -> bool) l : (forall a i j, p (a, i) = p (a, j)) ->
  filter p (List.map shift l) = List.map shift (filter p l).
Proof.
  intros H. induction l as [|[a i] l IH]; cbn [List.map filter]; [reflexivity|].
  unfold shift at 1. cbn [fst snd]. rewrite (H a (fk + i) i). destruct (p (a, i)); cbn [List.map]; rewrite IH; reflexivity.
Qed.

Lemma rename_embed f a b : ~ In a fnames -> ~ In b fnames ->
  rename (embed f) a b = match rename f a b with Some f' => Some (embed f') | None => None end.
Proof.
  intros Ha Hb. unfold rename. rewrite lookup_embed_own by exact Ha. destruct (lookup f a) as [i|]; [|reflexivity].
  f_equal. unfold embed. cbn [names inodes]. f_equal. cbn [List.map app]. f_equal.
  rewrite filter_app, filter_shift by reflexivity. f_equal.
  apply filter_stock. intros x Hx. cbn.
  destruct (beq_spec (fst x) a) as [E|_]; [exfalso; apply Ha; rewrite <- E; exact Hx|].
  destruct (beq_spec (fst x) b) as [E|_]; [exfalso; apply Hb; rewrite <- E; exact Hx|]. reflexivity.
Qed.

Lemma unlink_embed f a : ~ In a fnames -> unlink (embed f) a = embed (unlink f a).
Proof.
  intros Ha. unfold unlink, embed. cbn [names inodes]. f_equal.
  rewrite filter_app, filter_shift by reflexivity. f_equal.
  apply filter_stock. intros x Hx. cbn.
  destruct (beq_spec (fst x) a) as [E|_]; [exfalso; apply Ha; rewrite <- E; exact Hx | reflexivity].
Qed.

Lemma create_file_embed f a gz now :
  create_file (embed f) a gz now = (embed (fst (create_file f a gz now)), fk + snd (create_file f a gz now)).
Proof.
  unfold create_file, embed. cbn [names inodes fst snd List.map app shift]. rewrite app_length, <- app_assoc. reflexivity.
Qed.

Lemma open_trunc_embed f a gz now : ~ In a fnames ->
  open_trunc (embed f) a gz now = (embed (fst (open_trunc f a gz now)), fk + snd (open_trunc f a gz now)).
Proof.
  intros Ha. unfold open_trunc. rewrite lookup_embed_own by exact Ha. destruct (lookup f a) as [i|].
  - cbn [fst snd]. f_equal. rewrite inode_embed. unfold embed. cbn [names inodes]. f_equal. apply upd_embed.
  - apply create_file_embed.
Qed.

Lemma open_append_embed f a now : ~ In a fnames ->
  open_append (embed f) a now = (embed (fst (open_append f a now)), fk + snd (open_append f a now)).
Proof.
  intros Ha. unfold open_append. rewrite lookup_embed_own by exact Ha. destruct (lookup f a) as [i|].
  - reflexivity.
  - apply create_file_embed.
Qed.

Lemma dir_names_embed f : dir_names (embed f) = dir_names f ++ fnames.
Proof.
  unfold dir_names, embed, fnames. cbn [names]. rewrite map_app, map_map. reflexivity.
Qed.

End Embed.
