(* From the generic simulation of AsyncSim.v to statements about ANY write mode.

   1. same_but_mode c1 c2: the two configurations differ in nothing but the write mode (c_cap: Direct / BufWriter of any
      capacity; c_async: the records travel through a channel to a writer thread).
   2. async_transfer: an asynchronous run and the synchronous run of the same operations with the same capacity are in
      the relation Sim after the history (same world, same state up to the mode - hence the same pending bytes -, the
      writer thread runs); after the drop of the writer the worlds are equal, there is no writer and no thread; the
      caller of the asynchronous writer has seen "ok, no rotation" for every operation (aobs of NumAsync.v).
      Hypotheses (as in AsyncSim.async_sim_whole): the synchronous run returns normal results and its world is free of
      faults - both are theorems for the families of naming schemes.
   3. to_sync: the same for a configuration of either kind (c_async c = false: sync_of c = c).
   4. same_dir f1 f2: the two directories are the same map from names to (kind, directory flag, content); two
      directories with the same plain files are the same (same_dir_of_entries) and have the same snapshot
      (same_dir_snap). *)
Require Import FL.Base.Bytes FL.Fs.Fs FL.Flw.Model FL.Flw.ModelFacts FL.Flw.NumInv FL.Flw.Run FL.Flw.NumRun FL.Flw.NumListing
  FL.Flw.NumKillRestart FL.Flw.NoPanic FL.Flw.NumAsync FL.Flw.AsyncSim FL.Flw.TsReader FL.Flw.ListingExact.
Open Scope nat_scope.

(* ------------------------------------------------------------------ configurations that differ in the mode only *)
Definition same_but_mode (c1 c2 : config) : Prop :=
  c_spec c1 = c_spec c2 /\ c_append c1 = c_append c2 /\ c_rot c1 = c_rot c2 /\ c_utc c1 = c_utc c2
  /\ c_symlink c1 = c_symlink c2 /\ c_bg c1 = c_bg c2 /\ c_start c1 = c_start c2.

Definition with_mode (c : config) (cap : option nat) (async : bool) : config :=
  {| c_spec := c_spec c; c_append := c_append c; c_cap := cap; c_rot := c_rot c; c_utc := c_utc c;
     c_symlink := c_symlink c; c_bg := c_bg c; c_async := async; c_start := c_start c |}.

Lemma same_but_mode_refl c : same_but_mode c c.
Proof. repeat split. Qed.
Lemma same_but_mode_sym c1 c2 : same_but_mode c1 c2 -> same_but_mode c2 c1.
Proof. intros [H1 [H2 [H3 [H4 [H5 [H6 H7]]]]]]. repeat split; congruence. Qed.
Lemma same_but_mode_with c cap async : same_but_mode c (with_mode c cap async).
Proof. repeat split. Qed.
Lemma same_but_mode_sync c : same_but_mode c (sync_of c).
Proof. repeat split. Qed.

(* the file names depend on the file spec only *)
Lemma same_mode_nm c1 c2 : same_but_mode c1 c2 -> nm c1 = nm c2.
Proof. intros [H _]. unfold nm, fixed0. rewrite H. reflexivity. Qed.

(* ------------------------------------------------------------------ the relation after a history *)
Lemma sim_pending xa xs : Sim xa xs -> pending xa = pending xs.
Proof. intros [_ [_ [_ [s [Ea [Es _]]]]]]. unfold pending. rewrite Ea, Es. reflexivity. Qed.

Lemma aobs_no_rot o ob : basic_op o -> obs_normal o ob -> aobs o (no_rot ob).
Proof.
  intros Hb. destruct o; try contradiction; cbn [obs_normal aobs]; try (intros [rot ->]; reflexivity).
  intros [f [l [e ->]]]. cbn [no_rot]. eauto.
Qed.

Lemma aobs_map_no_rot : forall ops l, Forall basic_op ops -> Forall2 obs_normal ops l -> Forall2 aobs ops (List.map no_rot l).
Proof.
  induction ops as [|o r IH]; intros l Hb F; inversion F as [|o' ob r' l' Ho Hr]; subst; [constructor|].
  inversion Hb as [|o'' r'' Hbo Hbr]; subst. cbn [List.map]. constructor; [apply aobs_no_rot; assumption | apply IH; assumption].
Qed.

Theorem async_transfer c t0 off ops :
  c_async c = true -> Forall basic_op ops ->
  let ra := run (sys0 t0 off) (OStart c :: ops) in
  let rs := run (sys0 t0 off) (OStart (sync_of c) :: ops) in
  let ra' := run (sys0 t0 off) (OStart c :: ops ++ [OStop]) in
  let rs' := run (sys0 t0 off) (OStart (sync_of c) :: ops ++ [OStop]) in
  Forall obs_ok (snd rs) -> quiet (s_w (fst rs)) ->
  Sim (fst ra) (fst rs)
  /\ s_w (fst ra') = s_w (fst rs') /\ s_flw (fst ra') = None /\ s_dead (fst ra') = true
  /\ Forall2 aobs (OStart c :: ops ++ [OStop]) (snd ra').
Proof.
  intros Ha Hb. cbn zeta. cbn [run]. pose proof (sim_start c t0 off Ha) as S0.
  assert (O0 : snd (step (sys0 t0 off) (OStart c)) = ObsRes 0%N false) by reflexivity.
  destruct (step (sys0 t0 off) (OStart c)) as [xa0 oa0]. destruct (step (sys0 t0 off) (OStart (sync_of c))) as [xs0 os0].
  cbn [fst snd] in S0, O0. subst oa0. rewrite !run_app.
  pose proof (sim_run ops xa0 xs0 S0 Hb) as SR. pose proof (run_shapes ops xs0 Hb) as Sh.
  destruct (run xa0 ops) as [xa1 la]. destruct (run xs0 ops) as [xs1 ls]. cbn [fst snd] in *.
  intros K Q. inversion K as [|ob' l' K0 K1]; subst. destruct (SR K1) as [S1 E1].
  split; [exact S1|].
  rewrite (proj1 S1) in Q. destruct (sim_stop xa1 xs1 S1 Q) as [Ew [Fa [Fs [Da [Oa Os]]]]].
  cbn [run]. destruct (step xa1 OStop) as [xa2 oa2]. destruct (step xs1 OStop) as [xs2 os2]. cbn [fst snd] in *. subst oa2 os2.
  split; [exact Ew|]. split; [exact Fa|]. split; [exact Da|].
  constructor; [reflexivity|]. apply Forall2_app; [|constructor; [reflexivity | constructor]].
  rewrite E1. apply aobs_map_no_rot; [exact Hb | exact (Sh K1)].
Qed.

(* a configuration of either kind and its synchronous counterpart: same world and same pending bytes after the history,
   same world after the drop of the writer *)
Theorem to_sync c t0 off ops :
  Forall basic_op ops ->
  let r := run (sys0 t0 off) (OStart c :: ops) in
  let rs := run (sys0 t0 off) (OStart (sync_of c) :: ops) in
  let r' := run (sys0 t0 off) (OStart c :: ops ++ [OStop]) in
  let rs' := run (sys0 t0 off) (OStart (sync_of c) :: ops ++ [OStop]) in
  Forall obs_ok (snd rs) -> quiet (s_w (fst rs)) ->
  s_w (fst r) = s_w (fst rs) /\ pending (fst r) = pending (fst rs) /\ s_w (fst r') = s_w (fst rs').
Proof.
  intros Hb. cbn zeta. destruct (c_async c) eqn:Ha.
  - intros K Q. destruct (async_transfer c t0 off ops Ha Hb K Q) as [S [E _]].
    split; [symmetry; apply S|]. split; [apply sim_pending; exact S | exact E].
  - rewrite (sync_of_sync c Ha). intros _ _. repeat split.
Qed.

(* ------------------------------------------------------------------ "the same directory" *)
(* what a directory holds under a name: kind (plain / gz), directory flag, content *)
Definition dview (f : fs) (n : bytes) : option (N * bool * bytes) :=
  match lookup f n with Some j => Some (fgz (inode f j), fdir (inode f j), content f j) | None => None end.
(* the two directories are the same map from names to files *)
Definition same_dir (f1 f2 : fs) : Prop := forall n, dview f1 n = dview f2 n.

(* two directories that consist of the same plain files nmf 0 .. nmf (len-1) with the same contents, and nothing else *)
Lemma same_dir_of_entries (f1 f2 : fs) (nmf : nat -> bytes) (cnt : nat -> bytes) (len : nat) :
  (forall i, i < len -> exists j, lookup f1 (nmf i) = Some j /\ plain (inode f1 j) /\ content f1 j = cnt i) ->
  (forall n j, lookup f1 n = Some j -> exists i, i < len /\ n = nmf i) ->
  (forall i, i < len -> exists j, lookup f2 (nmf i) = Some j /\ plain (inode f2 j) /\ content f2 j = cnt i) ->
  (forall n j, lookup f2 n = Some j -> exists i, i < len /\ n = nmf i) ->
  same_dir f1 f2.
Proof.
  intros A1 B1 A2 B2 n. unfold dview. destruct (lookup f1 n) as [j1|] eqn:L1.
  - destruct (B1 n j1 L1) as [i [Hi ->]]. destruct (A1 i Hi) as [j1' [L1' [[G1 D1] C1]]]. rewrite L1 in L1'. injection L1' as <-.
    destruct (A2 i Hi) as [j2 [L2 [[G2 D2] C2]]]. rewrite L2, G1, D1, C1, G2, D2, C2. reflexivity.
  - destruct (lookup f2 n) as [j2|] eqn:L2; [|reflexivity]. destruct (B2 n j2 L2) as [i [Hi ->]].
    destruct (A1 i Hi) as [j1 [L1' _]]. congruence.
Qed.

(* hence the same snapshot (names in sorted order, kind, content), when no name is listed twice *)
Lemma same_dir_snap f1 f2 : NoDup (dir_names f1) -> NoDup (dir_names f2) -> same_dir f1 f2 -> snap_list f1 = snap_list f2.
Proof.
  intros N1 N2 S. unfold snap_list.
  assert (M : forall n, In n (dir_names f1) <-> In n (dir_names f2)).
  { intros n. rewrite !dir_names_lookup. specialize (S n). unfold dview in S.
    destruct (lookup f1 n), (lookup f2 n); try discriminate; split; intros [j H]; eauto; discriminate. }
  rewrite (sort_names_same _ _ N1 N2 M). apply map_ext. intros n. unfold snap_entry, file_of.
  specialize (S n). unfold dview, content in S.
  destruct (lookup f1 n), (lookup f2 n); try discriminate; [|reflexivity]. injection S as E1 E2 E3. rewrite E1, E2, E3. reflexivity.
Qed.

Print Assumptions async_transfer.
Print Assumptions to_sync.
