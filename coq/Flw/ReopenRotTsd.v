(* C18 with rotation, TimestampsDirect naming (r<time stamp>[.restart-NNNN], no rCURRENT: the current file is the one with
   the newest key): reopen_outputfile() after an external rename of the current file, reopen_outputfile() with the file in
   place, reset(builder) to another TimestampsDirect family.  The analogue of ReopenRot.v (Numbers) and ReopenRotD.v
   (NumbersDirect).

   What the model does:
   - the path of the current file is part of the Active state; reopen_outputfile() opens exactly this path again (append,
     create if missing) and keeps the whole rotation state.  After "rename <current> -> moved; reopen" there is a NEW, empty
     file AT THE ORIGINAL PATH: the same time stamp, the same restart counter.
   - a rotation in the same second as the time stamp of the moved file DOES take a restart counter: the name is occupied
     again by the new file, collision_free_infix sees it.  The keys (second, position) of the files of the family are
     exactly those of a history without the rename: in the directory no name is used twice, no counter is skipped; over
     time the name of the current file has named two different files (the one moved away and the new one).
   - the size count is not reset: the new file inherits the count of the file moved away (an empty file may stay behind,
     ext_reopen_empty_file), the new writer is an unbuffered File until the next rotation.
   - the name the file is moved to must not be a member of the family (tsd_member).  A member name is never overwritten
     (the rotation makes its names collision-free), but a name with a LATER time stamp misplaces the records in the
     reader's order (ext_reopen_family_name_misplaces).
   - without the reopen the writer goes on writing into the moved file; the name is then free and the next rotation in this
     second takes it a second time (ext_rename_without_reopen).
   - reset(builder) to another TimestampsDirect family in the same write mode: the old writer is dropped (buffered tail flushed
     into the old current file), the new writer starts as in a directory of its own at the time of the reset, provided the
     names of the old family are not members of the new one.
   Main statements: collision_free_infix_ts_x, reopen_timestampsdirect, reopen_timestampsdirect_partition,
   reopen_timestampsdirect_at_once, reopen_timestampsdirect_in_place, reset_timestampsdirect. *)
Require Import FL.Base.Bytes FL.Base.BytesFacts FL.Base.PathName FL.Fs.Fs FL.Fs.FsFacts FL.Time.Civil FL.Time.TsFormat
  FL.Names.FileSpec FL.Names.NamesFacts FL.Names.SortFacts FL.Names.FamilyFacts FL.Flw.Model FL.Flw.ModelFacts FL.Flw.QuietFacts FL.Flw.NumFs
  FL.Flw.NumInv FL.Flw.Run FL.Flw.RunFacts FL.Flw.NumRun FL.Oracles.O_Flw FL.Flw.NumTheorems FL.Flw.NumListing FL.Flw.NumDInv
  FL.Flw.NumDTheorems
  FL.Flw.TsCal FL.Flw.TsTime FL.Flw.TsMono FL.Flw.TsNames FL.Flw.TsInv FL.Flw.TsRun FL.Flw.TsTheorems
  FL.Flw.TsdInv FL.Flw.TsdRun FL.Flw.TsdTheorems FL.Flw.TsRestart
  FL.Flw.ForeignFs FL.Flw.ForeignModel FL.Flw.NumForeign FL.Flw.TsForeignFacts FL.Flw.TsdForeign FL.Flw.ReopenRot.
Require FL.Flw.TsdAge.
From Coq Require Import ZifyN ZifyNat ZifyBool.
Open Scope nat_scope.

(* ================================================================== collision_free_infix with other files around *)
Definition fn_of (xs : list bytes) : list (bytes * nat) := List.map (fun n => (n, 0)) xs.
Lemma fnames_fn_of xs : fnames (fn_of xs) = xs.
Proof. unfold fnames, fn_of. rewrite map_map. cbn [fst]. apply map_id. Qed.

(* the names that the writer builds are not among names that the family test rejects *)
Lemma kname_not_extra c e k xs : (forall n, In n xs -> tsd_member c n = false) -> in_years e (fst k) -> ~ In (kname c e k) xs.
Proof.
  intros H Y I. rewrite <- (fnames_fn_of xs) in H, I. exact (kname_own (fn_of xs) c H e k Y I).
Qed.

(* the directory: the files named by `keys` (not directories) and files with the names xs, nothing else *)
Definition dir_isx (c : config) (e : Z) (f : fs) (keys : list key) (xs : list bytes) : Prop :=
  (forall k, In k keys -> exists j, lookup f (kname c e k) = Some j /\ fdir (inode f j) = false)
  /\ (forall n j, lookup f n = Some j -> (exists k, In k keys /\ n = kname c e k) \/ In n xs).

(* TsNames.collision_free_infix_ts with files around that are not members of the family: the answer is the same *)
Theorem collision_free_infix_ts_x c e off f keys xs ts n :
  tag_ok c -> in_years e ts -> (forall k, In k keys -> in_years e (fst k)) -> dir_isx c e f keys xs ->
  (forall x, In x xs -> tsd_member c x = false) ->
  (forall m, In (ts, m) keys <-> m < n) -> (N.of_nat n <= usize_max)%N ->
  collision_free_infix off (c_spec c) (fixed0 c) f (tsx e ts) = Some (Some (infix_of e (ts, n))).
Proof.
  intros T Hts Hk D Hfor0 Hn Hmax. pose proof D as [Hin Hon].
  assert (Hfor : forall x, In x (fnames (fn_of xs)) -> tsd_member c x = false) by (rewrite fnames_fn_of; exact Hfor0).
  unfold collision_free_infix. rewrite !filter_files_total.
  set (rel := related_files f (fsfx (c_spec c)) (fixed0 c)).
  set (unc := filter (qf off (fsfx (c_spec c)) (fixed0 c) (IFEq (tsx e ts)) (fsfx (c_spec c))) rel).
  set (cmp := filter (qf off (fsfx (c_spec c)) (fixed0 c) (IFEq (tsx e ts)) (Some gz_sfx)) rel).
  set (sibs := filter (fun x => contains (tsx e ts ++ restart_tag) x) (unc ++ cmp)).
  (* what is listed carries this time stamp *)
  assert (A : forall x, In x (unc ++ cmp) -> exists m, m < n /\ x = kname c e (ts, m)).
  { intros x I. apply in_app_or in I.
    assert (X : exists o, (o = fsfx (c_spec c) \/ o = Some gz_sfx) /\ In x rel
                          /\ qf off (fsfx (c_spec c)) (fixed0 c) (IFEq (tsx e ts)) o x = true).
    { destruct I as [I|I]; apply filter_In in I; destruct I; [exists (fsfx (c_spec c)) | exists (Some gz_sfx)]; auto. }
    destruct X as [o [Ho [Ir Q]]]. apply related_files_in in Ir. destruct Ir as [Id _].
    apply dir_names_lookup in Id. destruct Id as [j Lj].
    destruct (Hon x j Lj) as [Hx|Hx].
    - destruct (qf_eq_upper c e off ts Hts keys o x Hk (or_intror Hx) Q) as [m [Im ->]]. exists m. split; [apply Hn; exact Im | reflexivity].
    - rewrite <- (fnames_fn_of xs) in Hx.
      rewrite (foreign_eq (fn_of xs) c Hfor off (tsx e ts) o x (tsx_like e ts Hts) Ho Hx) in Q. discriminate. }
  (* every file with this time stamp is listed *)
  assert (B : forall m, m < n -> In (kname c e (ts, m)) (unc ++ cmp)).
  { intros m Hm. apply in_or_app. left. apply filter_In. split; [|apply qf_eq_lower; exact Hts].
    destruct (Hin (ts, m) (proj2 (Hn m) Hm)) as [j [Lj Pd]]. apply related_files_in. split; [apply dir_names_lookup; eauto|]. split.
    - unfold is_reg_file, file_of. rewrite Lj, Pd. reflexivity.
    - rewrite kname_shape by exact Hts. apply is_prefix_under. }
  (* the restart numbers found: 0 .. n-2 *)
  assert (R : forall v, In v (filter_map_opt (restart_number (tsx e ts)) sibs) <-> exists i, i < n - 1 /\ v = N.of_nat i).
  { intros v. rewrite filter_map_opt_in. split.
    - intros [x [Ix Ex]]. apply filter_In in Ix. destruct Ix as [Ix Cx]. destruct (A x Ix) as [m [Hm ->]].
      destruct m as [|m]; [rewrite kname_plain_no_tag in Cx by assumption; discriminate|].
      rewrite restart_number_kname in Ex by (assumption || apply T || lia). injection Ex as <-. exists m. split; [lia | reflexivity].
    - intros [i [Hi ->]]. exists (kname c e (ts, Datatypes.S i)). split.
      + apply filter_In. split; [apply B; lia | apply kname_restart_contains; [apply T | assumption]].
      + apply restart_number_kname; [apply T | assumption | lia]. }
  rewrite (max_opt_range _ _ R).
  (* the three tests *)
  assert (E1 : lookup f (as_name (c_spec c) (fixed0 c) (Some (tsx e ts))) = None <-> n = 0).
  { change (as_name (c_spec c) (fixed0 c) (Some (tsx e ts))) with (kname c e (ts, 0)). split.
    - intros L. destruct n as [|n']; [reflexivity|]. destruct (Hin (ts, 0) (proj2 (Hn 0) ltac:(lia))) as [j [Lj _]]. congruence.
    - intros ->. destruct (lookup f (kname c e (ts, 0))) as [j|] eqn:L; [exfalso|reflexivity].
      destruct (Hon _ _ L) as [[k [Ik X]]|X].
      + apply kname_inj in X; [|exact Hts | apply Hk; exact Ik]. subst k. apply Hn in Ik. lia.
      + exact (kname_not_extra c e (ts, 0) xs Hfor0 Hts X). }
  change (as_name (c_spec c) (fixed0 c) (Some (tsx e ts)) ++ dot :: gz_sfx) with (kname c e (ts, 0) ++ dot :: gz_sfx).
  assert (Gz : lookup f (kname c e (ts, 0) ++ dot :: gz_sfx) = None).
  { destruct (lookup f (kname c e (ts, 0) ++ dot :: gz_sfx)) as [j|] eqn:E; [exfalso|reflexivity].
    destruct (Hon _ _ E) as [[k [Ik X]]|X].
    - rewrite (kname_shape c e (ts, 0) Hts) in X. cbn [fst snd ktail app] in X.
      pose proof (Hk k Ik) as Yk. rewrite (kname_shape c e k Yk), <- !app_assoc in X. apply app_inv_head in X.
      apply app_inj_len in X; [|rewrite !tsx_length by assumption; reflexivity]. destruct X as [_ X].
      apply (f_equal (@length N)) in X. destruct (snd k) as [|m]; cbn [ktail app] in X.
      + rewrite app_length in X. cbn [length] in X. lia.
      + rewrite !app_length in X. change (length (dot :: gz_sfx)) with 3 in X. change (length restart_tag) with 9 in X. lia.
    - pose proof (built_name_gz_own (fn_of xs) c Hfor (tsx e ts) [] (tsx_like e ts Hts) (tsx_no_dot e ts Hts) (or_introl eq_refl)) as O.
      rewrite app_nil_r, fnames_fn_of in O. exact (O X). }
  rewrite Gz. cbn [orb].
  destruct n as [|[|n']].
  - rewrite (proj2 E1 eq_refl). cbn [orb].
    assert (Es : sibs = []).
    { destruct sibs as [|x r] eqn:Es; [reflexivity|exfalso].
      assert (Ix : In x sibs) by (rewrite Es; left; reflexivity). apply filter_In in Ix. destruct (A x (proj1 Ix)) as [m [Hm _]]. lia. }
    rewrite Es. reflexivity.
  - assert (L : exists j, lookup f (as_name (c_spec c) (fixed0 c) (Some (tsx e ts))) = Some j).
    { assert (L : lookup f (as_name (c_spec c) (fixed0 c) (Some (tsx e ts))) <> None) by (intros X; apply E1 in X; discriminate).
      destruct (lookup f (as_name (c_spec c) (fixed0 c) (Some (tsx e ts)))) as [j|]; [eauto | congruence]. }
    destruct L as [j L]. rewrite L.
    cbn [orb Nat.sub]. reflexivity.
  - assert (L : exists j, lookup f (as_name (c_spec c) (fixed0 c) (Some (tsx e ts))) = Some j).
    { assert (L : lookup f (as_name (c_spec c) (fixed0 c) (Some (tsx e ts))) <> None) by (intros X; apply E1 in X; discriminate).
      destruct (lookup f (as_name (c_spec c) (fixed0 c) (Some (tsx e ts)))) as [j|]; [eauto | congruence]. }
    destruct L as [j L]. rewrite L.
    cbn [orb Nat.sub].
    destruct (N.ltb_spec (N.of_nat n') usize_max) as [_|X]; [|lia].
    unfold infix_of, restart_infix. cbn [fst snd]. replace (N.of_nat n' + 1)%N with (N.of_nat (Datatypes.S n')) by lia. reflexivity.
Qed.
Print Assumptions collision_free_infix_ts_x.

(* ================================================================== the search under the invariant with other files in the directory *)
Lemma tsdinvx_dir c e lo w wr keys closed extra : TsdInvX c e lo w wr keys closed extra ->
  dir_isx c e (wfs w) keys (List.map fst extra).
Proof.
  intros I. pose proof I as [Q W Hnd Hoff Hlen Hc Hcp Hcl Hex Hon Hfo Hko Hrg Hwr]. split.
  - intros k Ik. destruct (In_nth keys k kd Ik) as [i [Hi E]]. rewrite Hlen in Hi.
    destruct (Nat.eq_dec i (length closed)) as [->|Hne].
    + exists (wino wr). rewrite <- E. split; [exact Hc | apply Hcp].
    + destruct (Hcl i ltac:(lia)) as [j [Lj [[_ Pd] _]]]. rewrite E in Lj. eauto.
  - intros n j L. destruct (Hon n j L) as [[i [Hi ->]]|Hx]; [left | right; exact Hx].
    exists (nth i keys kd). split; [apply nth_In; lia | reflexivity].
Qed.

(* the search for a free infix is answered by the next key *)
Lemma cfi_tsdinvx c e lo hi w wr keys closed extra :
  tag_ok c -> years_ok e lo hi -> TsdInvX c e lo w wr keys closed extra -> (wnow w <= hi)%Z ->
  (N.of_nat (length keys) <= usize_max)%N -> (forall n, In n (List.map fst extra) -> tsd_member c n = false) ->
  collision_free_infix (woff w) (c_spec c) (fixed0 c) (wfs w) (tsx e (wnow w))
    = Some (Some (infix_of e (wnow w, count (wnow w) keys))).
Proof.
  intros T Y I Hhi Hmax Hfor. destruct (tsdinvx_years _ _ _ _ _ _ _ _ _ I Y Hhi) as [Ynow Yk].
  apply (collision_free_infix_ts_x c e (woff w) (wfs w) keys (List.map fst extra) (wnow w) (count (wnow w) keys) T Ynow Yk
           (tsdinvx_dir _ _ _ _ _ _ _ _ I) Hfor (keys_count keys (tx_keys _ _ _ _ _ _ _ _ I) (wnow w))).
  pose proof (count_le_length (wnow w) keys). lia.
Qed.

(* ================================================================== histories on the generalised invariant *)
(* the abstract view (xview, x_step, x_run, sx_run of ReopenRot.v); n bounds the number of closed files; keys0: keys that
   were there at the start - the keys are only ever extended *)
Definition RelTdX (c : config) (crit : criterion) (e lo : Z) (extra : list (bytes * bytes)) (keys0 : list key) (n : nat)
                  (x : sys) (v : xview) : Prop :=
  let '(closed, cur, g) := v in
  s_tl x = [] /\ wacts (s_w x) = 0 /\
  exists keys wr roll, s_flw x = Some (st_tsd c e (nth (length closed) keys kd) roll wr)
    /\ TsdInvX c e lo (s_w x) wr keys closed extra
    /\ cur_view (s_w x) wr = cur /\ length closed <= n
    /\ roll_size_ok roll (g + length cur) /\ (forall m, crit = CSize m -> exists k, roll = RSize m k)
    /\ exists tl, keys = keys0 ++ tl.

Lemma step_sync_reltdx c crit e lo extra keys0 n x v o : tsdcfg c crit -> RelTdX c crit e lo extra keys0 n x v ->
  step x o = sync_step x o.
Proof.
  intros [_ [Hts [_ Ha]]] R. destruct v as [[closed cur] g]. destruct R as [_ [_ [keys [wr [roll [Es _]]]]]].
  rewrite step_plain by (intros s' Es'; rewrite Es in Es'; injection Es' as <-; exact Hts).
  unfold step_core. rewrite Es. unfold is_async. cbn [st_tsd f_cfg]. rewrite Ha. reflexivity.
Qed.

Lemma RelTdX_mono c crit e lo extra keys0 n x v : RelTdX c crit e lo extra keys0 n x v -> RelTdX c crit e lo extra keys0 (S n) x v.
Proof.
  destruct v as [[closed cur] g]. intros [Ht [Ha [keys [wr [roll [Es [I [V [Hn ZR]]]]]]]]].
  split; [exact Ht|]. split; [exact Ha|]. exists keys, wr, roll.
  split; [exact Es|]. split; [exact I|]. split; [exact V|]. split; [lia | exact ZR].
Qed.

Lemma write_reltdx c crit e lo hi extra keys0 n x v b :
  tsdcfg c crit -> tag_ok c -> years_ok e lo hi -> (forall n, In n (List.map fst extra) -> tsd_member c n = false) ->
  RelTdX c crit e lo extra keys0 n x v ->
  (wnow (s_w x) <= hi)%Z -> (N.of_nat (S n) <= usize_max)%N ->
  exists s w' s' rot, s_flw x = Some s /\ f_poisoned s = false /\
    write_buffer s (s_w x) b = (Ok tt, w', s', rot)
    /\ RelTdX c crit e lo extra keys0 (S n) {| s_flw := Some s'; s_w := w'; s_tl := []; s_dead := s_dead x |} (x_step v (OWrite b) rot)
    /\ wnow w' = wnow (s_w x)
    /\ (forall m, crit = CSize m -> rot = (m <? N.of_nat (size_of v))%N).
Proof.
  intros Hcfg T Y Hfor R Hhi Hmax. destruct v as [[closed cur] g].
  destruct R as [Ht [Ha [keys [wr [roll [Es [I [V [Hn [Z [RS [tl0 K0]]]]]]]]]]]].
  rewrite <- V in Z.
  assert (Hk : (N.of_nat (length keys) <= usize_max)%N) by (rewrite (tx_len _ _ _ _ _ _ _ _ I); lia).
  destruct (write_active_tsdx c crit e lo hi (s_w x) wr keys closed extra roll g b Hcfg Y I Hhi
              (cfi_tsdinvx c e lo hi (s_w x) wr keys closed extra T Y I Hhi Hk Hfor) Z)
    as [w' [wr' [roll' [keys' [closed' [E [I' [Z' [S' [V' [[tl1 K1] [R' _]]]]]]]]]]]].
  exists (st_tsd c e (nth (length closed) keys kd) roll wr), w', (st_tsd c e (nth (length closed') keys' kd) roll' wr'),
         (rotation_necessary (s_w x) roll).
  split; [exact Es|]. split; [reflexivity|]. split; [exact E|].
  split; [|split; [exact (same_env_now _ _ S')|]].
  - cbn [x_step]. rewrite V in V'.
    destruct (rotation_necessary (s_w x) roll); injection V' as -> V''; (split; [reflexivity|]; split; [cbn [s_w]; exact (same_env_acts _ _ S' Ha)|];
      exists keys', wr', roll'; cbn [s_flw s_w];
      split; [reflexivity|]; split; [exact I'|]; split; [exact V''|]; split; [rewrite ?app_length; cbn [length]; lia|];
      split; [rewrite <- V''; exact Z'|];
      split; [intros m Hm; destruct (RS m Hm) as [k ->]; destruct (R' m k eq_refl) as [k' ->]; eauto|];
      exists (tl0 ++ tl1); rewrite K1, K0, app_assoc; reflexivity).
  - intros m Hm. destruct (RS m Hm) as [k ->]. cbn in Z. subst k. cbn [size_of]. rewrite V. reflexivity.
Qed.

Lemma step_reltdx c crit e lo hi extra keys0 n x v o :
  tsdcfg c crit -> tag_ok c -> years_ok e lo hi -> (forall n, In n (List.map fst extra) -> tsd_member c n = false) ->
  RelTdX c crit e lo extra keys0 n x v -> basic_op o -> tick_ok o ->
  (wnow (s_w x) <= hi)%Z -> (N.of_nat (S n) <= usize_max)%N ->
  let '(x', ob) := step x o in
  RelTdX c crit e lo extra keys0 (S n) x' (x_step v o (rot_of ob)) /\ wnow (s_w x') = (wnow (s_w x) + dt_of o)%Z
  /\ (forall m, is_wr o = true -> crit = CSize m -> ob = ObsRes 0 (m <? N.of_nat (size_of v))%N).
Proof.
  intros Hcfg T Y Hfor R Hb Htk Hhi Hmax. rewrite (step_sync_reltdx c crit e lo extra keys0 n x v o Hcfg R).
  destruct o; try contradiction; cbn [sync_step dt_of].
  - (* OWrite *)
    destruct (write_reltdx c crit e lo hi extra keys0 n x v b Hcfg T Y Hfor R Hhi Hmax) as [s [w' [s' [rot [Es [Hp [E [R' [Hw C]]]]]]]]].
    assert (Ht : s_tl x = []) by (destruct v as [[? ?] ?]; apply R).
    rewrite Es, Hp. rewrite Ht. cbn [app]. rewrite E. cbn [rot_of s_w]. split; [exact R'|]. split; [lia|].
    intros m _ Hm. rewrite (C m Hm). reflexivity.
  - (* OPlain *)
    destruct (write_reltdx c crit e lo hi extra keys0 n x v b Hcfg T Y Hfor R Hhi Hmax) as [s [w' [s' [rot [Es [Hp [E [R' [Hw C]]]]]]]]].
    assert (Ht : s_tl x = []) by (destruct v as [[? ?] ?]; apply R).
    rewrite Es, Hp, E. cbn [rot_of code_of s_w]. rewrite Ht. split; [exact R'|]. split; [lia|].
    intros m _ Hm. rewrite (C m Hm). reflexivity.
  - (* OFlush *)
    destruct v as [[closed cur] g]. destruct R as [Ht [Ha [keys [wr [roll [Es [I [V [Hn ZR]]]]]]]]]. rewrite Es. cbn [st_tsd f_poisoned].
    destruct (flush_active_tsdx c e lo (s_w x) wr keys closed extra roll (nth (length closed) keys kd) I) as [w' [wr' [E [I' [V' [P' [S' _]]]]]]].
    fold (st_tsd c e (nth (length closed) keys kd) roll wr). rewrite E. cbn [rot_of x_step s_w].
    split; [|split; [rewrite (same_env_now _ _ S'); lia | intros m H; discriminate]].
    split; [exact Ht|]. split; [exact (same_env_acts _ _ S' Ha)|]. exists keys, wr', roll. cbn [s_flw s_w].
    split; [reflexivity|]. split; [exact I'|]. split; [congruence|]. split; [lia | exact ZR].
  - (* OTrigger *)
    destruct v as [[closed cur] g]. destruct R as [Ht [Ha [keys [wr [roll [Es [I [V [Hn [Z [RS [tl0 K0]]]]]]]]]]]].
    rewrite Es. cbn [st_tsd f_poisoned f_cfg f_inner].
    assert (Hk : (N.of_nat (length keys) <= usize_max)%N) by (rewrite (tx_len _ _ _ _ _ _ _ _ I); lia).
    destruct (mount_next_tsdx c crit e lo hi (s_w x) wr keys closed extra roll true Hcfg Y I Hhi
                (cfi_tsdinvx c e lo hi (s_w x) wr keys closed extra T Y I Hhi Hk Hfor) eq_refl) as [w' [wr' [E [I' [V' [S' _]]]]]].
    rewrite E. cbn [rot_of x_step code_of with_inner f_cfg f_poisoned s_w].
    split; [|split; [rewrite (same_env_now _ _ S'); lia | intros m H; discriminate]].
    split; [exact Ht|]. split; [exact (same_env_acts _ _ S' Ha)|]. rewrite V in *.
    exists (keys ++ [(wnow (s_w x), count (wnow (s_w x)) keys)]), wr', (reset_roll roll (wnow (s_w x))). cbn [s_flw s_w].
    split.
    { rewrite nth_snoc_last by (rewrite app_length; cbn [length]; rewrite (tx_len _ _ _ _ _ _ _ _ I); lia). reflexivity. }
    split; [exact I'|]. split; [exact V'|]. split; [rewrite app_length; cbn [length]; lia|]. split; [apply reset_roll_size|].
    split; [intros m Hm; destruct (RS m Hm) as [k ->]; cbn; eauto|].
    eexists. rewrite K0, <- app_assoc. reflexivity.
  - (* OTick *)
    cbn [rot_of x_step s_w set_now wnow tick_ok] in *. split; [|split; [reflexivity | intros m H; discriminate]].
    destruct v as [[closed cur] g]. destruct R as [Ht [Ha [keys [wr [roll [Es [I [V [Hn ZR]]]]]]]]].
    split; [exact Ht|]. split; [exact Ha|]. exists keys, wr, roll. cbn [s_flw s_w].
    split; [exact Es|]. split; [apply tsdinvx_tick; assumption|]. split; [exact V|]. split; [lia | exact ZR].
  - (* OSnap *)
    cbn [rot_of x_step]. split; [apply RelTdX_mono; destruct v as [[closed cur] g]; exact R|]. split; [lia | intros m H; discriminate].
Qed.

(* a run: the relation, the clock, and - for a size criterion - the size rule *)
Lemma run_reltdx c crit e lo hi extra keys0 : tsdcfg c crit -> tag_ok c -> years_ok e lo hi ->
  (forall n, In n (List.map fst extra) -> tsd_member c n = false) ->
  forall ops x v n, RelTdX c crit e lo extra keys0 n x v -> Forall basic_op ops -> Forall tick_ok ops ->
  (wnow (s_w x) + elapsed ops <= hi)%Z -> (N.of_nat (n + length ops) <= usize_max)%N ->
  RelTdX c crit e lo extra keys0 (n + length ops) (fst (run x ops)) (x_run v ops (snd (run x ops)))
  /\ wnow (s_w (fst (run x ops))) = (wnow (s_w x) + elapsed ops)%Z
  /\ (forall m, crit = CSize m -> x_run v ops (snd (run x ops)) = sx_run m v ops).
Proof.
  intros Hcfg T Y Hfor. induction ops as [|o r IH]; intros x v n R Hb Htk Hhi Hmax.
  - cbn [run fst snd x_run length elapsed]. rewrite Nat.add_0_r. split; [exact R|]. split; [lia|]. intros m _. reflexivity.
  - cbn [run]. inversion Hb as [|o' r' Ho Hr]; subst. inversion Htk as [|o' r' Hto Htr]; subst.
    cbn [elapsed length] in *. pose proof (elapsed_nonneg r Htr) as Er.
    assert (Hdt : (0 <= dt_of o)%Z) by (destruct o; cbn [dt_of tick_ok] in *; lia).
    pose proof (step_reltdx c crit e lo hi extra keys0 n x v o Hcfg T Y Hfor R Ho Hto ltac:(lia) ltac:(lia)) as S. destruct (step x o) as [x1 ob].
    destruct S as [R1 [W1 C1]]. specialize (IH x1 _ (S n) R1 Hr Htr ltac:(lia) ltac:(lia)). destruct (run x1 r) as [x2 obs].
    cbn [fst snd x_run] in *. replace (n + S (length r)) with (S n + length r) by lia. destruct IH as [IH1 [IH2 IH3]].
    split; [exact IH1|]. split; [lia|].
    intros m Hm. rewrite (IH3 m Hm).
    assert (Erot : x_step v o (rot_of ob) = x_step v o (m <? N.of_nat (size_of v))%N).
    { destruct o; try reflexivity; rewrite (C1 m eq_refl Hm); reflexivity. }
    cbn [sx_run]. rewrite <- Erot. reflexivity.
Qed.

(* ------------------------------------------------------------------ stop: what the reader finds *)
(* the files named by the keys, with the given contents (the last one is the file that was written last), the other files
   with their contents, nothing else *)
Definition tsdx_view (c : config) (e : Z) (f : fs) (keys : list key) (files : list bytes) (extra : list (bytes * bytes)) : Prop :=
  length keys = length files
  /\ (forall i, i < length files ->
        exists j, lookup f (kname c e (nth i keys kd)) = Some j /\ plain (inode f j) /\ content f j = nth i files [])
  /\ (forall n d, In (n, d) extra -> exists j, lookup f n = Some j /\ plain (inode f j) /\ content f j = d)
  /\ (forall n j, lookup f n = Some j -> (exists i, i < length files /\ n = kname c e (nth i keys kd)) \/ In n (List.map fst extra))
  /\ NoDup (dir_names f).

Lemma tsdx_view_nil c e f keys files : tsdx_view c e f keys files [] <-> tsd_view c e f keys files.
Proof.
  split.
  - intros [A [B [_ [D E]]]]. split; [exact A|]. split; [exact B|]. split; [|exact E].
    intros n j L. destruct (D n j L) as [H|[]]. exact H.
  - intros [A [B [D E]]]. split; [exact A|]. split; [exact B|]. split; [intros n d []|]. split; [|exact E].
    intros n j L. left. exact (D n j L).
Qed.

Lemma tsdinvx_view c e lo w wr keys closed extra : TsdInvX c e lo w wr keys closed extra -> wpend wr = [] ->
  tsdx_view c e (wfs w) keys (closed ++ [cur_view w wr]) extra.
Proof.
  intros [Q W Hnd Hoff Hlen Hc Hcp Hcl Hex Hon Hfo Hko Hrg Hwr] P.
  assert (El : length (closed ++ [cur_view w wr]) = S (length closed)) by (rewrite app_length; cbn [length]; lia).
  split; [rewrite El; exact Hlen|]. split; [|split; [|split; [|exact Hnd]]].
  - intros i Hi. rewrite El in Hi.
    destruct (Nat.eq_dec i (length closed)) as [->|Hne].
    + exists (wino wr). split; [exact Hc|]. split; [exact Hcp|].
      rewrite app_nth2, Nat.sub_diag by lia. cbn [nth]. unfold cur_view. rewrite P, app_nil_r. reflexivity.
    + assert (Hi' : i < length closed) by lia. destruct (Hcl i Hi') as [j [Lj [Pj [Cj _]]]]. exists j.
      split; [exact Lj|]. split; [exact Pj|]. rewrite app_nth1 by assumption. exact Cj.
  - intros n d Hin. destruct (Hex n d Hin) as [j [Lj [Pj [Cj _]]]]. eauto.
  - intros n j L. destruct (Hon n j L) as [[i [Hi E]]|E]; [left | right; exact E]. exists i. rewrite El. split; [lia | exact E].
Qed.

Lemma stop_reltdx c crit e lo extra keys0 n x closed cur g : tsdcfg c crit -> RelTdX c crit e lo extra keys0 n x (closed, cur, g) ->
  exists keys, tsdx_view c e (wfs (s_w (fst (step x OStop)))) keys (closed ++ [cur]) extra /\ keys_ok keys
               /\ (forall k, In k keys -> (lo <= fst k <= wnow (s_w x))%Z) /\ exists tl, keys = keys0 ++ tl.
Proof.
  intros Hcfg R0. rewrite (step_sync_reltdx c crit e lo extra keys0 n x _ OStop Hcfg R0). destruct R0 as [Ht [Ha R]]. cbn [sync_step].
  destruct R as [keys [wr [roll [Es [I [V [_ [_ [_ K0]]]]]]]]]. rewrite Es. unfold st_tsd. cbn [f_poisoned].
  rewrite drop_state_quiet by exact (tx_quiet _ _ _ _ _ _ _ _ I). cbn [fst s_w].
  destruct (tsdinvx_flushed _ _ _ _ _ _ _ _ I) as [I2 V2].
  exists keys. split; [|split; [exact (tx_keys _ _ _ _ _ _ _ _ I) | split; [exact (tx_range _ _ _ _ _ _ _ _ I) | exact K0]]].
  rewrite <- V, <- V2. apply (tsdinvx_view c e lo); [exact I2 | reflexivity].
Qed.

(* ================================================================== the view determines the keys *)
Lemma klt_asym a b : klt a b -> klt b a -> False.
Proof. unfold klt. lia. Qed.

Definition nsorted (l : list key) : Prop := forall i j, i < j < length l -> klt (nth i l kd) (nth j l kd).

Lemma nsorted_cons a r : nsorted (a :: r) -> nsorted r /\ forall x, In x r -> klt a x.
Proof.
  intros H. split.
  - intros i j Hij. apply (H (S i) (S j)). cbn [length]. lia.
  - intros x Ix. destruct (In_nth r x kd Ix) as [i [Hi <-]]. apply (H 0 (S i)). cbn [length]. lia.
Qed.

Lemma nsorted_unique : forall l1 l2, nsorted l1 -> nsorted l2 -> (forall k, In k l1 <-> In k l2) -> l1 = l2.
Proof.
  induction l1 as [|a r1 IH]; intros [|b r2] S1 S2 E.
  - reflexivity.
  - exfalso. apply (proj2 (E b)). left. reflexivity.
  - exfalso. apply (proj1 (E a)). left. reflexivity.
  - destruct (nsorted_cons a r1 S1) as [S1' M1]. destruct (nsorted_cons b r2 S2) as [S2' M2].
    assert (Eab : a = b).
    { destruct (proj1 (E a) (or_introl eq_refl)) as [<-|Ia]; [reflexivity|].
      destruct (proj2 (E b) (or_introl eq_refl)) as [<-|Ib]; [reflexivity|].
      exfalso. exact (klt_asym a b (M1 b Ib) (M2 a Ia)). }
    subst b. f_equal. apply IH; [exact S1' | exact S2'|].
    intros k. split; intros Ik.
    + destruct (proj1 (E k) (or_intror Ik)) as [<-|H]; [exfalso; exact (klt_irrefl _ (M1 _ Ik)) | exact H].
    + destruct (proj2 (E k) (or_intror Ik)) as [<-|H]; [exfalso; exact (klt_irrefl _ (M2 _ Ik)) | exact H].
Qed.

Lemma tsd_view_keys_unique c e lo hi f keys1 keys2 files1 files2 :
  years_ok e lo hi -> (forall k, In k keys1 -> (lo <= fst k <= hi)%Z) -> (forall k, In k keys2 -> (lo <= fst k <= hi)%Z) ->
  keys_ok keys1 -> keys_ok keys2 ->
  tsd_view c e f keys1 files1 -> tsd_view c e f keys2 files2 -> keys1 = keys2 /\ files1 = files2.
Proof.
  intros Y R1 R2 K1 K2 [L1 [A1 [B1 _]]] [L2 [A2 [B2 _]]].
  assert (Y1 : forall k, In k keys1 -> in_years e (fst k)) by (intros k Ik; apply (years_in e lo hi _ Y); apply R1, Ik).
  assert (Y2 : forall k, In k keys2 -> in_years e (fst k)) by (intros k Ik; apply (years_in e lo hi _ Y); apply R2, Ik).
  assert (Sub : forall (ka : list key) (fa : list bytes) (kb : list key) (fb : list bytes),
            length ka = length fa -> length kb = length fb ->
            (forall k, In k ka -> in_years e (fst k)) -> (forall k, In k kb -> in_years e (fst k)) ->
            (forall i, i < length fa -> exists j, lookup f (kname c e (nth i ka kd)) = Some j /\ plain (inode f j) /\ content f j = nth i fa []) ->
            (forall n j, lookup f n = Some j -> exists i, i < length fb /\ n = kname c e (nth i kb kd)) ->
            forall k, In k ka -> In k kb).
  { intros ka fa kb fb La Lb Ya Yb Aa Bb k Ik. destruct (In_nth ka k kd Ik) as [i [Hi E]]. rewrite La in Hi.
    destruct (Aa i Hi) as [j [Lj _]]. destruct (Bb _ _ Lj) as [i' [Hi' E']]. rewrite E in E'.
    assert (Ik' : In (nth i' kb kd) kb) by (apply nth_In; lia).
    apply kname_inj in E'; [|apply Ya; exact Ik | apply Yb; exact Ik']. rewrite E'. exact Ik'. }
  assert (EK : keys1 = keys2).
  { apply nsorted_unique; [exact (keys_sorted keys1 K1) | exact (keys_sorted keys2 K2)|].
    intros k. split; [apply (Sub keys1 files1 keys2 files2) | apply (Sub keys2 files2 keys1 files1)]; assumption. }
  split; [exact EK|]. subst keys2.
  assert (EL : length files1 = length files2) by exact (eq_trans (eq_sym L1) L2).
  apply (nth_ext _ _ [] []); [exact EL|]. intros i Hi.
  destruct (A1 i Hi) as [j1 [Lj1 [_ C1]]]. destruct (A2 i ltac:(rewrite <- EL; exact Hi)) as [j2 [Lj2 [_ C2]]].
  rewrite Lj1 in Lj2. injection Lj2 as <-. exact (eq_trans (eq_sym C1) C2).
Qed.

(* ================================================================== reopen_outputfile() *)
(* somebody renames the current file to a name outside the family, then reopen_outputfile(): the renamed file gets the
   buffered tail, a new empty file exists at the original path, the rotation state and the keys are kept *)
Lemma reopen_moved_step_tsd c crit e lo hi n x keys wr roll cl cu moved :
  tsdcfg c crit -> years_ok e lo hi -> (wnow (s_w x) <= hi)%Z ->
  s_tl x = [] -> wacts (s_w x) = 0 ->
  s_flw x = Some (st_tsd c e (nth (length cl) keys kd) roll wr) -> TsdInv c e lo (s_w x) wr keys cl ->
  cur_view (s_w x) wr = cu -> length cl <= n -> roll_size_ok roll (length cu) ->
  (forall m, crit = CSize m -> exists k, roll = RSize m k) ->
  tsd_member c moved = false ->
  exists x2, run x [OExtRename (kname c e (nth (length cl) keys kd)) moved; OReopen] = (x2, [ObsRes 0 false; ObsRes 0 false])
    /\ RelTdX c crit e lo [(moved, cu)] keys n x2 (cl, [], length cu) /\ wnow (s_w x2) = wnow (s_w x).
Proof.
  intros Hcfg Y Hhi Ht Ha Es I V Hn Z RS Hm. pose proof Hcfg as [Hrot [Hts [Hlink Hasync]]].
  pose proof I as [Q W Hnd Hoff Hlen Hc Hcp Hcl Hon Hko Hrg Hwr Hcap].
  set (cur := kname c e (nth (length cl) keys kd)) in *.
  assert (Yk : forall k, In k keys -> in_years e (fst k)).
  { intros k Ik. apply (years_in e lo hi); [exact Y|]. specialize (Hrg k Ik). lia. }
  assert (Hmx : forall n0, In n0 [moved] -> tsd_member c n0 = false) by (intros n0 [<-|[]]; exact Hm).
  assert (Hmk : forall k, In k keys -> moved <> kname c e k).
  { intros k Ik E. apply (kname_not_extra c e k [moved] Hmx (Yk k Ik)). left. exact E. }
  assert (Hfree : lookup (wfs (s_w x)) moved = None).
  { destruct (lookup (wfs (s_w x)) moved) as [j|] eqn:E; [|reflexivity]. exfalso.
    destruct (Hon _ _ E) as [i [Hi E1]]. apply (Hmk (nth i keys kd)); [apply nth_In; lia | exact E1]. }
  assert (Hcm : cur <> moved) by (intros E; apply (Hmk (nth (length cl) keys kd)); [apply nth_In; lia | symmetry; exact E]).
  cbn [run]. rewrite (RunFacts.step_sync_cfg x (OExtRename cur moved) _ Es Hts Hasync).
  destruct (rotate_fs_spec (wfs (s_w x)) cur moved (wino wr) (wpend wr) (wnow (s_w x)) W Hcm Hc Hfree) as [f1 [Er R]].
  cbn zeta in R. destruct R as [L1c [Hino1 [W3 [Hnew [L3c [L3t [L3o [Hlen3 [Inew [Iold Ioth]]]]]]]]]].
  cbn [sync_step]. rewrite Er.
  set (w1 := set_fs (s_w x) f1).
  set (x1 := {| s_flw := s_flw x; s_w := w1; s_tl := s_tl x; s_dead := s_dead x |}).
  assert (Q1 : quiet w1) by exact Q.
  rewrite (RunFacts.step_sync_cfg x1 OReopen _ Es Hts Hasync).
  cbn [sync_step x1 s_flw s_w s_tl s_dead]. rewrite Es. cbn [st_tsd f_poisoned].
  unfold st_tsd. rewrite (reopen_state_quiet c false w1 _ wr _ Q1). fold cur.
  assert (Eopen : open_append (wfs w1) cur (wnow w1) = create_file f1 cur 0%N (wnow (s_w x))).
  { apply open_append_fresh. exact L1c. }
  rewrite Eopen. cbn [code_of].
  set (new := snd (create_file f1 cur 0%N (wnow (s_w x)))) in *.
  set (f3 := append_ino (fst (create_file f1 cur 0%N (wnow (s_w x)))) (wino wr) (wpend wr)) in *.
  set (w3 := flushed (set_fs w1 (fst (create_file f1 cur 0%N (wnow (s_w x))))) wr).
  assert (F3' : wfs w3 = f3) by reflexivity.
  set (wr' := {| wino := new; wpend := []; wcap := None |}).
  assert (Enow : wnow w3 = wnow (s_w x)) by reflexivity.
  eexists. split; [reflexivity|]. cbn [s_w].
  pose proof (wf_bound _ W _ _ Hc) as Hold.
  assert (A3 : wacts w3 = 0) by exact Ha.
  split; [|exact Enow].
  split; [exact Ht|]. split; [exact A3|]. exists keys, wr', roll. cbn [s_flw s_w with_inner st_tsd f_cfg f_poisoned].
  split; [reflexivity|]. split.
  { constructor.
    - exact Q.
    - rewrite F3'. exact W3.
    - rewrite F3'. unfold f3. change (dir_names (append_ino ?g _ _)) with (dir_names g).
      apply create_nodup; [exact (rename_nodup _ _ _ _ Hnd Er) | exact L1c].
    - exact Hoff.
    - exact Hlen.
    - rewrite F3'. exact L3c.
    - rewrite F3'. cbn [wr' wino]. rewrite Inew. split; reflexivity.
    - intros i Hi. rewrite F3'. destruct (Hcl i Hi) as [j [Lj [Pj [Cj Hj2]]]].
      exists j. rewrite L3o.
      + split; [exact Lj|].
        assert (Hj1 : j <> new). { pose proof (wf_bound _ W _ _ Lj). rewrite Hnew. lia. }
        unfold content. rewrite Ioth by assumption. split; [exact Pj|]. split; [exact Cj | exact Hj1].
      + intros E. rewrite E, Hc in Lj. injection Lj as <-. exact (Hj2 eq_refl).
      + intros E. rewrite E, Hfree in Lj. discriminate.
    - intros n0 d [E|[]]. injection E as <- <-. rewrite F3'. exists (wino wr). split; [exact L3t|]. split.
      + rewrite Iold. exact Hcp.
      + split; [|cbn [wr' wino]; rewrite Hnew; lia].
        unfold content at 1. rewrite Iold. cbn [with_data fdata]. exact V.
    - intros n0 j Hn0. rewrite F3' in Hn0.
      destruct (beq_spec n0 cur) as [->|Hn1]; [left; exists (length cl); split; [lia | reflexivity]|].
      destruct (beq_spec n0 moved) as [->|Hn2]; [right; left; reflexivity|].
      rewrite L3o in Hn0 by assumption. left. exact (Hon _ _ Hn0).
    - intros n0 k H Yk0 ->. exact (kname_not_extra c e k [moved] Hmx Yk0 H).
    - exact Hko.
    - rewrite Enow. exact Hrg.
    - reflexivity. }
  split. { unfold cur_view. rewrite F3'. cbn [wr' wino wpend]. unfold content. rewrite Inew. reflexivity. }
  split; [exact Hn|].
  split. { cbn [length]. rewrite Nat.add_0_r. exact Z. }
  split; [exact RS|]. exists []. rewrite app_nil_r. reflexivity.
Qed.

(* reopen_outputfile() with the file in place: the same inode is continued, the buffered tail is flushed into it *)
Lemma reopen_inplace_step_tsd c crit e lo n x keys wr roll cl cu :
  tsdcfg c crit -> s_tl x = [] -> wacts (s_w x) = 0 ->
  s_flw x = Some (st_tsd c e (nth (length cl) keys kd) roll wr) -> TsdInv c e lo (s_w x) wr keys cl ->
  cur_view (s_w x) wr = cu -> length cl <= n -> roll_size_ok roll (length cu) ->
  (forall m, crit = CSize m -> exists k, roll = RSize m k) ->
  exists x2, step x OReopen = (x2, ObsRes 0 false)
    /\ RelTdX c crit e lo [] keys n x2 (cl, cu, 0) /\ wnow (s_w x2) = wnow (s_w x).
Proof.
  intros Hcfg Ht Ha Es I V Hn Z RS. pose proof Hcfg as [Hrot [Hts [Hlink Hasync]]].
  rewrite (RunFacts.step_sync_cfg x OReopen _ Es Hts Hasync).
  pose proof (tsdinv_x _ _ _ _ _ _ _ I) as IX. pose proof I as [Q W Hnd Hoff Hlen Hc Hcp Hcl Hon Hko Hrg Hwr Hcap].
  cbn [sync_step]. rewrite Es. cbn [st_tsd f_poisoned].
  unfold st_tsd. rewrite (reopen_state_quiet c false (s_w x) _ wr _ Q).
  set (cur := kname c e (nth (length cl) keys kd)) in *.
  assert (Eopen : open_append (wfs (s_w x)) cur (wnow (s_w x)) = (wfs (s_w x), wino wr)).
  { unfold open_append. rewrite Hc. reflexivity. }
  rewrite Eopen. cbn [fst snd code_of]. rewrite set_fs_id.
  set (wr' := {| wino := wino wr; wpend := []; wcap := None |}).
  destruct (tsdinvx_append c e lo (s_w x) (flushed (s_w x) wr) wr wr' keys cl [] (wpend wr) IX (flushed_fs _ wr)
              (flushed_env _ wr Q) eq_refl eq_refl) as [I3 C3].
  eexists. split; [reflexivity|]. cbn [s_w]. split; [|reflexivity].
  split; [exact Ht|]. split; [exact Ha|].
  exists keys, wr', roll. cbn [s_flw s_w].
  split; [reflexivity|]. split; [exact I3|].
  split. { unfold cur_view. rewrite C3. cbn [wr' wpend]. rewrite app_nil_r. exact V. }
  split; [exact Hn|]. split; [exact Z|]. split; [exact RS|]. exists []. rewrite app_nil_r. reflexivity.
Qed.

(* before the first record there is no file and no writer: reopen does nothing *)
Lemma reopen_initial_step_tsd c crit e lo n x :
  tsdcfg c crit -> RelTd c crit e lo n x None ->
  exists x2, step x OReopen = (x2, ObsRes 0 false) /\ RelTd c crit e lo n x2 None /\ wnow (s_w x2) = wnow (s_w x).
Proof.
  intros Hcfg R. rewrite (step_sync_rel_tsd c crit e lo n x _ OReopen Hcfg R). cbn [sync_step].
  pose proof R as [Ht [Ha [Es RR]]]. rewrite Es.
  cbn [new_flw f_poisoned reopen_state f_inner code_of]. eexists. split; [reflexivity|]. split; [|reflexivity].
  split; [exact Ht|]. split; [exact Ha|]. split; [reflexivity|]. exact RR.
Qed.

(* ================================================================== whole histories *)
(* the directory that a stop leaves, with the keys of the state *)
Lemma tsd_stop_view c crit e lo n x keys wr roll cl cu :
  tsdcfg c crit -> s_tl x = [] -> wacts (s_w x) = 0 ->
  s_flw x = Some (st_tsd c e (nth (length cl) keys kd) roll wr) -> TsdInv c e lo (s_w x) wr keys cl ->
  cur_view (s_w x) wr = cu -> length cl <= n -> roll_size_ok roll (length cu) ->
  (forall m, crit = CSize m -> exists k, roll = RSize m k) ->
  tsd_view c e (wfs (s_w (fst (step x OStop)))) keys (cl ++ [cu]).
Proof.
  intros Hcfg Ht Ha Es I V Hn Z RS.
  assert (RX : RelTdX c crit e lo [] keys n x (cl, cu, 0)).
  { split; [exact Ht|]. split; [exact Ha|]. exists keys, wr, roll. split; [exact Es|]. split; [apply tsdinv_x; exact I|].
    split; [exact V|]. split; [exact Hn|]. split; [exact Z|]. split; [exact RS|]. exists []. rewrite app_nil_r. reflexivity. }
  destruct (stop_reltdx c crit e lo [] keys n x cl cu 0 Hcfg RX) as [keys' [VX [_ [_ [tl Ek]]]]].
  apply tsdx_view_nil in VX. pose proof (proj1 VX) as L. rewrite Ek, !app_length, (td_len _ _ _ _ _ _ _ I) in L. cbn [length] in L.
  assert (Etl : tl = []) by (apply length_zero_iff_nil; lia). rewrite Etl, app_nil_r in Ek. rewrite <- Ek. exact VX.
Qed.

(* the state at the end of a history whose directory (after a stop) is known *)
Lemma reltd_view_components c crit e lo hi n x a keys1 files1 :
  tsdcfg c crit -> years_ok e lo hi -> (wnow (s_w x) <= hi)%Z -> RelTd c crit e lo n x a ->
  tsd_view c e (wfs (s_w (fst (step x OStop)))) keys1 files1 -> files1 <> [] -> keys_ok keys1 ->
  (forall k, In k keys1 -> (lo <= fst k <= hi)%Z) ->
  exists cl cu wr roll, a = Some (cl, cu) /\ files1 = cl ++ [cu]
    /\ s_flw x = Some (st_tsd c e (nth (length cl) keys1 kd) roll wr) /\ TsdInv c e lo (s_w x) wr keys1 cl
    /\ cur_view (s_w x) wr = cu /\ length cl <= n /\ roll_size_ok roll (length cu)
    /\ (forall m, crit = CSize m -> exists k, roll = RSize m k).
Proof.
  intros Hcfg Y Hhi R Hv Hne K1 Rg1. destruct a as [[cl cu]|].
  - pose proof R as [Ht [Ha [keys [wr [roll [Es [I [V [Hn [Z RS]]]]]]]]]].
    pose proof (tsd_stop_view c crit e lo n x keys wr roll cl cu Hcfg Ht Ha Es I V Hn Z RS) as V2.
    assert (Rg2 : forall k, In k keys -> (lo <= fst k <= hi)%Z).
    { intros k Ik. pose proof (td_range _ _ _ _ _ _ _ I k Ik). lia. }
    destruct (tsd_view_keys_unique c e lo hi _ keys keys1 (cl ++ [cu]) files1 Y Rg2 Rg1 (td_keys _ _ _ _ _ _ _ I) K1 V2 Hv) as [-> <-].
    exists cl, cu, wr, roll. repeat (split; [first [reflexivity | assumption]|]). exact RS.
  - exfalso. pose proof (stop_rel_tsd c crit e lo n x None Hcfg R) as S. destruct (step x OStop) as [x' ob']. cbn [fst] in Hv.
    destruct Hv as [_ [A _]]. destruct files1 as [|f0 fr]; [exact (Hne eq_refl)|].
    destruct (A 0 ltac:(cbn [length]; lia)) as [j [Lj _]]. rewrite (lookup_empty _ _ S) in Lj. discriminate.
Qed.

(* ---- the part of the history after the switch ---- *)
Lemma foreign_one (p : bytes -> bool) moved (d : bytes) :
  p moved = false -> forall n, In n (List.map fst [(moved, d)]) -> p n = false.
Proof. intros Hm n [<-|[]]. exact Hm. Qed.

Lemma foreign_none (p : bytes -> bool) : forall n, In n (List.map fst (@nil (bytes * bytes))) -> p n = false.
Proof. intros n []. Qed.

Lemma tail_reltdx c crit e lo hi extra keys0 n x cl cu g ops2 :
  tsdcfg c crit -> tag_ok c -> years_ok e lo hi -> (forall n, In n (List.map fst extra) -> tsd_member c n = false) ->
  RelTdX c crit e lo extra keys0 n x (cl, cu, g) ->
  Forall basic_op ops2 -> Forall tick_ok ops2 ->
  (wnow (s_w x) + elapsed ops2 <= hi)%Z -> (N.of_nat (n + length ops2) <= usize_max)%N ->
  exists keys2 closed2 cur2,
    tsdx_view c e (wfs (s_w (fst (run x (ops2 ++ [OStop]))))) (keys0 ++ keys2) (cl ++ closed2 ++ [cur2]) extra
    /\ keys_ok (keys0 ++ keys2)
    /\ (forall k, In k (keys0 ++ keys2) -> (lo <= fst k <= wnow (s_w x) + elapsed ops2)%Z)
    /\ concat closed2 ++ cur2 = cu ++ written ops2
    /\ (exists t, closed2 ++ [cur2] = (cu ++ t) :: List.tl (closed2 ++ [cur2]))
    /\ (forall m, crit = CSize m -> cl ++ closed2 ++ [cur2] = x_files (sx_run m (cl, cu, g) ops2)).
Proof.
  intros Hcfg T Y Hfor R Hb Htk Hhi Hmax. rewrite run_app.
  pose proof (run_reltdx c crit e lo hi extra keys0 Hcfg T Y Hfor ops2 x _ n R Hb Htk Hhi Hmax) as [R1 [W1 Hs]].
  pose proof (run_length ops2 x) as L.
  pose proof (x_run_ext ops2 (cl, cu, g) (snd (run x ops2))) as X.
  pose proof (x_run_flat ops2 (cl, cu, g) (snd (run x ops2)) Hb L) as Fl.
  destruct (run x ops2) as [x1 obs1]. cbn [fst snd] in *.
  destruct (x_run (cl, cu, g) ops2 obs1) as [[cl3 cu3] g3] eqn:Ev.
  destruct (stop_reltdx c crit e lo extra keys0 _ x1 cl3 cu3 g3 Hcfg R1) as [keys [S [K [Rg [keys2 Ek]]]]].
  cbn [run]. destruct (step x1 OStop) as [x2 ob2]. cbn [fst] in *.
  cbn [x_ext x_flat] in X, Fl.
  assert (Ecl : exists closed2, cl3 = cl ++ closed2 /\ exists t, closed2 ++ [cu3] = (cu ++ t) :: List.tl (closed2 ++ [cu3])).
  { destruct X as [[-> [t ->]]|[t [rest ->]]].
    - exists []. rewrite app_nil_r. split; [reflexivity|]. exists t. reflexivity.
    - exists ((cu ++ t) :: rest). split; [reflexivity|]. exists t. reflexivity. }
  destruct Ecl as [closed2 [-> Ht]]. exists keys2, closed2, cu3. rewrite <- Ek.
  split; [rewrite app_assoc; exact S|]. split; [exact K|]. split; [rewrite <- W1; exact Rg|]. split.
  - rewrite concat_app, <- !app_assoc in Fl. apply app_inv_head in Fl. exact Fl.
  - split; [exact Ht|]. intros m Hm. rewrite <- (Hs m Hm). cbn [x_files]. rewrite app_assoc. reflexivity.
Qed.

(* a history from a state of the original invariant, then stop *)
Lemma finish_rel_tsd c crit e lo hi n x a ops : tsdcfg c crit -> tag_ok c -> years_ok e lo hi -> RelTd c crit e lo n x a ->
  Forall basic_op ops -> Forall tick_ok ops -> (wnow (s_w x) + elapsed ops <= hi)%Z -> (N.of_nat (n + length ops) <= usize_max)%N ->
  let a' := a_run a ops (snd (run x ops)) in
  (exists keys, tsd_view c e (wfs (s_w (fst (run x (ops ++ [OStop]))))) keys (files_of a') /\ keys_ok keys
                /\ (forall k, In k keys -> (lo <= fst k <= wnow (s_w x) + elapsed ops)%Z))
  /\ flat a' = flat a ++ written ops
  /\ (forall m, crit = CSize m -> a' = s_run m a ops).
Proof.
  intros Hcfg T Y R Hb Htk Hhi Hmax a'. subst a'. rewrite run_app.
  pose proof (run_rel_tsd c crit e lo hi Hcfg T Y ops x a n R Hb Htk Hhi Hmax) as [R1 [W1 Z1]].
  pose proof (run_length ops x) as L.
  destruct (run x ops) as [x1 obs1]. cbn [fst snd] in *.
  pose proof (stop_rel_tsd c crit e lo _ x1 _ Hcfg R1) as S. cbn [run]. destruct (step x1 OStop) as [x2 ob2]. cbn [fst].
  split; [|split; [apply a_run_flat; assumption | intros m Hm; exact (proj1 (Z1 m Hm))]].
  destruct (a_run a ops obs1) as [[cl cu]|]; cbn [files_of].
  - destruct S as [keys [V [K Rg]]]. exists keys. split; [exact V|]. split; [exact K|]. rewrite <- W1. exact Rg.
  - exists []. split; [apply tsd_view_nil; auto|]. split; [constructor | intros k []].
Qed.

Lemma wnow_start c t0 off x0 ob0 : step (sys0 t0 off) (OStart c) = (x0, ob0) -> wnow (s_w x0) = t0.
Proof. intros E0. cbn in E0. injection E0 as <- _. reflexivity. Qed.

(* the history up to the return of reopen_outputfile() *)
Lemma reopen_tsd_prefix c crit t0 off ops1 moved keys1 closed1 cur1 hi :
  tsdcfg c crit -> tag_ok c -> Forall basic_op ops1 -> Forall tick_ok ops1 ->
  years_ok (ts_e c off) t0 hi -> (t0 + elapsed ops1 <= hi)%Z -> (N.of_nat (length ops1) <= usize_max)%N ->
  tsd_member c moved = false ->
  let e := ts_e c off in
  tsd_view c e (wfs (s_w (fst (run (sys0 t0 off) (OStart c :: ops1 ++ [OStop]))))) keys1 (closed1 ++ [cur1]) ->
  keys_ok keys1 -> (forall k, In k keys1 -> (t0 <= fst k <= t0 + elapsed ops1)%Z) ->
  exists x2 obs1,
    run (sys0 t0 off) ((OStart c :: ops1) ++ [OExtRename (kname c e (nth (length closed1) keys1 kd)) moved; OReopen])
      = (x2, obs1 ++ [ObsRes 0 false; ObsRes 0 false]) /\ length obs1 = S (length ops1)
    /\ RelTdX c crit e t0 [(moved, cur1)] keys1 (length ops1) x2 (closed1, [], length cur1)
    /\ wnow (s_w x2) = (t0 + elapsed ops1)%Z /\ concat closed1 ++ cur1 = written ops1.
Proof.
  intros Hcfg T Hb1 Htk1 Y Hhi Hmax Hm e Hv K1 Rg1.
  pose proof (elapsed_nonneg _ Htk1) as En1.
  destruct (step (sys0 t0 off) (OStart c)) as [x0 ob0] eqn:E0.
  pose proof (wnow_start c t0 off x0 ob0 E0) as W0.
  pose proof (start_rel_tsd c crit t0 off) as R0. rewrite E0 in R0. cbn [fst] in R0. fold e in R0.
  rewrite run_app. cbn [run] in Hv |- *. rewrite E0 in Hv |- *. rewrite run_app in Hv.
  pose proof (run_rel_tsd c crit e t0 _ Hcfg T Y ops1 x0 None 0 R0 Hb1 Htk1 ltac:(lia) ltac:(cbn [Nat.add]; lia)) as [R1 [W1 _]].
  pose proof (run_length ops1 x0) as L1.
  pose proof (a_run_flat ops1 None (snd (run x0 ops1)) Hb1 L1) as Fl1. cbn [flat app] in Fl1.
  destruct (run x0 ops1) as [x1 obs1]. cbn [fst snd Nat.add] in *.
  assert (Hv' : tsd_view c e (wfs (s_w (fst (step x1 OStop)))) keys1 (closed1 ++ [cur1])).
  { cbn [run] in Hv. destruct (step x1 OStop) as [x1s ob1s]. exact Hv. }
  clear Hv.
  destruct (reltd_view_components c crit e t0 _ _ x1 _ keys1 (closed1 ++ [cur1]) Hcfg Y ltac:(lia) R1 Hv'
              ltac:(destruct closed1; discriminate) K1 ltac:(intros k Ik; specialize (Rg1 k Ik); lia))
    as [cl [cu [wr [roll [Ea [Ef [Es [I [V [Hn [Z RS]]]]]]]]]]].
  apply app_inj_tail in Ef. destruct Ef as [<- <-]. rewrite Ea in Fl1. cbn [flat] in Fl1.
  destruct R1 as [Ht1 [Ha1 _]].
  destruct (reopen_moved_step_tsd c crit e t0 _ _ x1 keys1 wr roll closed1 cur1 moved Hcfg Y ltac:(lia) Ht1 Ha1 Es I V Hn Z RS Hm)
    as [x2 [E2 [R2 W2]]].
  cbn [run] in E2. rewrite E2. exists x2, (ob0 :: obs1). split; [reflexivity|]. split; [cbn [length]; lia|].
  split; [exact R2|]. split; [lia | exact Fl1].
Qed.

(* ------------------------------------------------------------------ external rename, then reopen *)
(* keys1, closed1 ++ [cur1]: the keys and contents of the files that the history ops1 leaves; the current file is the one
   with the newest key.  It is renamed to `moved`, then reopen_outputfile() is called. *)
Theorem reopen_timestampsdirect c crit t0 off ops1 ops2 moved keys1 closed1 cur1 :
  tsdcfg c crit -> tag_ok c -> Forall basic_op ops1 -> Forall basic_op ops2 -> Forall tick_ok (ops1 ++ ops2) ->
  (0 <= t0 + ts_e c off)%Z -> (t0 + elapsed (ops1 ++ ops2) + ts_e c off < sec_max)%Z ->
  (N.of_nat (length (ops1 ++ ops2)) <= usize_max)%N ->
  tsd_member c moved = false ->
  let e := ts_e c off in
  tsd_view c e (wfs (s_w (fst (run (sys0 t0 off) (OStart c :: ops1 ++ [OStop]))))) keys1 (closed1 ++ [cur1]) ->
  keys_ok keys1 -> (forall k, In k keys1 -> (t0 <= fst k <= t0 + elapsed ops1)%Z) ->
  let cur := kname c e (nth (length closed1) keys1 kd) in
  let r := run (sys0 t0 off) (OStart c :: ops1 ++ [OExtRename cur moved; OReopen] ++ ops2 ++ [OStop]) in
  let f := wfs (s_w (fst r)) in
  (* reopen_outputfile() succeeds *)
  nth_error (snd r) (S (S (length ops1))) = Some (ObsRes 0 false)
  /\ concat closed1 ++ cur1 = written ops1
  /\ exists keys2 closed2 cur2,
       (* the directory: the files of ops1 under their keys - the last of these keys, the original path, now names the first
          file of ops2 -, the further files of ops2 under further keys, and the renamed file with everything written since the
          last rotation of ops1 (buffered tail included) *)
       tsdx_view c e f (keys1 ++ keys2) (closed1 ++ closed2 ++ [cur2]) [(moved, cur1)]
       /\ keys_ok (keys1 ++ keys2)
       /\ (forall k, In k (keys1 ++ keys2) -> (t0 <= fst k <= t0 + elapsed (ops1 ++ ops2))%Z)
       /\ length keys1 = S (length closed1)
       /\ concat closed2 ++ cur2 = written ops2
       /\ concat (closed1 ++ [cur1] ++ closed2 ++ [cur2]) = written (ops1 ++ ops2).
Proof.
  intros Hcfg T Hb1 Hb2 Htk Hlo Hhi Hmax Hm e Hv K1 Rg1. cbv zeta.
  apply Forall_app in Htk. destruct Htk as [Htk1 Htk2]. rewrite elapsed_app in Hhi |- *. rewrite app_length in Hmax.
  pose proof (elapsed_nonneg _ Htk1) as En1. pose proof (elapsed_nonneg _ Htk2) as En2.
  assert (Y : years_ok e t0 (t0 + elapsed ops1 + elapsed ops2)) by (unfold years_ok, e; lia).
  assert (Hl : length keys1 = S (length closed1)).
  { destruct Hv as [Hl _]. rewrite app_length in Hl. cbn [length] in Hl. lia. }
  destruct (reopen_tsd_prefix c crit t0 off ops1 moved keys1 closed1 cur1 _ Hcfg T Hb1 Htk1 Y ltac:(lia) ltac:(lia) Hm Hv K1 Rg1)
    as [x2 [obs1 [E2 [L1 [R2 [W2 Fl1]]]]]]. fold e in E2, R2.
  rewrite app_comm_cons, app_assoc, run_app, E2.
  destruct (tail_reltdx c crit e t0 _ [(moved, cur1)] keys1 _ x2 closed1 [] (length cur1) ops2 Hcfg T Y (foreign_one (tsd_member c) moved cur1 Hm) R2 Hb2 Htk2 ltac:(lia) ltac:(lia))
    as [keys2 [closed2 [cur2 [D [K [Rg [C _]]]]]]].
  destruct (run x2 (ops2 ++ [OStop])) as [x3 obs3]. cbn [fst snd] in *.
  split.
  { rewrite <- app_assoc, nth_error_app2 by lia. replace (S (S (length ops1)) - length obs1) with 1 by lia. reflexivity. }
  split; [exact Fl1|].
  exists keys2, closed2, cur2. cbn [app] in C.
  split; [exact D|]. split; [exact K|]. split; [intros k Ik; specialize (Rg k Ik); lia|].
  split; [exact Hl|]. split; [exact C|].
  rewrite ReopenRot.written_app, !concat_app. cbn [concat]. rewrite !app_nil_r, <- Fl1, <- C, <- !app_assoc. reflexivity.
Qed.
Print Assumptions reopen_timestampsdirect.

(* size criterion: the size count survives the reopen.  The files of ops2 - the first one at the original path - are the
   greedy partition of ops2 that starts with cur1 (the content of the renamed file) in the current file, with cur1 taken
   off the first file, because these bytes are in the renamed file *)
Theorem reopen_timestampsdirect_partition c m t0 off ops1 ops2 moved keys1 closed1 cur1 :
  tsdcfg c (CSize m) -> tag_ok c -> Forall basic_op ops1 -> Forall basic_op ops2 -> Forall tick_ok (ops1 ++ ops2) ->
  (0 <= t0 + ts_e c off)%Z -> (t0 + elapsed (ops1 ++ ops2) + ts_e c off < sec_max)%Z ->
  (N.of_nat (length (ops1 ++ ops2)) <= usize_max)%N ->
  tsd_member c moved = false ->
  let e := ts_e c off in
  tsd_view c e (wfs (s_w (fst (run (sys0 t0 off) (OStart c :: ops1 ++ [OStop]))))) keys1 (closed1 ++ [cur1]) ->
  keys_ok keys1 -> (forall k, In k keys1 -> (t0 <= fst k <= t0 + elapsed ops1)%Z) ->
  let cur := kname c e (nth (length closed1) keys1 kd) in
  let r := run (sys0 t0 off) (OStart c :: ops1 ++ [OExtRename cur moved; OReopen] ++ ops2 ++ [OStop]) in
  exists keys2 h tl,
    partition m [] cur1 (items true ops2) = (cur1 ++ h) :: tl
    /\ tsdx_view c e (wfs (s_w (fst r))) (keys1 ++ keys2) (closed1 ++ h :: tl) [(moved, cur1)]
    /\ keys_ok (keys1 ++ keys2).
Proof.
  intros Hcfg T Hb1 Hb2 Htk Hlo Hhi Hmax Hm e Hv K1 Rg1. cbv zeta.
  apply Forall_app in Htk. destruct Htk as [Htk1 Htk2]. rewrite elapsed_app in Hhi. rewrite app_length in Hmax.
  pose proof (elapsed_nonneg _ Htk1) as En1. pose proof (elapsed_nonneg _ Htk2) as En2.
  assert (Y : years_ok e t0 (t0 + elapsed ops1 + elapsed ops2)) by (unfold years_ok, e; lia).
  destruct (reopen_tsd_prefix c (CSize m) t0 off ops1 moved keys1 closed1 cur1 _ Hcfg T Hb1 Htk1 Y ltac:(lia) ltac:(lia) Hm Hv K1 Rg1)
    as [x2 [obs1 [E2 [_ [R2 [W2 _]]]]]]. fold e in E2, R2.
  rewrite app_comm_cons, app_assoc, run_app, E2.
  destruct (tail_reltdx c (CSize m) e t0 _ [(moved, cur1)] keys1 _ x2 closed1 [] (length cur1) ops2 Hcfg T Y (foreign_one (tsd_member c) moved cur1 Hm) R2 Hb2 Htk2 ltac:(lia) ltac:(lia))
    as [keys2 [closed2 [cur2 [D [K [_ [_ [_ P]]]]]]]].
  destruct (run x2 (ops2 ++ [OStop])) as [x3 obs3]. cbn [fst snd] in *.
  destruct (sx_run_partition m ops2 closed1 [] cur1 Hb2) as [h [tl [P1 P2]]]. rewrite app_nil_r in P1.
  exists keys2, h, tl. split; [exact P1|]. split; [|exact K].
  rewrite (eq_trans (P m eq_refl) P2) in D. exact D.
Qed.
Print Assumptions reopen_timestampsdirect_partition.

(* right after reopen_outputfile() has returned the renamed file holds every record written since the last rotation -
   the buffered tail included -, and there is a new, empty file at the original path: the keys are unchanged *)
Theorem reopen_timestampsdirect_at_once c crit t0 off ops1 moved keys1 closed1 cur1 :
  tsdcfg c crit -> tag_ok c -> Forall basic_op ops1 -> Forall tick_ok ops1 ->
  (0 <= t0 + ts_e c off)%Z -> (t0 + elapsed ops1 + ts_e c off < sec_max)%Z -> (N.of_nat (length ops1) <= usize_max)%N ->
  tsd_member c moved = false ->
  let e := ts_e c off in
  tsd_view c e (wfs (s_w (fst (run (sys0 t0 off) (OStart c :: ops1 ++ [OStop]))))) keys1 (closed1 ++ [cur1]) ->
  keys_ok keys1 -> (forall k, In k keys1 -> (t0 <= fst k <= t0 + elapsed ops1)%Z) ->
  let cur := kname c e (nth (length closed1) keys1 kd) in
  let f := wfs (s_w (fst (run (sys0 t0 off) (OStart c :: ops1 ++ [OExtRename cur moved; OReopen])))) in
  concat closed1 ++ cur1 = written ops1
  /\ tsdx_view c e f keys1 (closed1 ++ [[]]) [(moved, cur1)].
Proof.
  intros Hcfg T Hb1 Htk1 Hlo Hhi Hmax Hm e Hv K1 Rg1. cbv zeta.
  assert (Y : years_ok e t0 (t0 + elapsed ops1)) by (unfold years_ok, e; lia).
  destruct (reopen_tsd_prefix c crit t0 off ops1 moved keys1 closed1 cur1 _ Hcfg T Hb1 Htk1 Y ltac:(lia) Hmax Hm Hv K1 Rg1)
    as [x2 [obs1 [E2 [_ [R2 [_ Fl1]]]]]]. fold e in E2, R2.
  rewrite app_comm_cons, E2. cbn [fst]. split; [exact Fl1|].
  destruct R2 as [_ [_ [keys [wr [roll [_ [I [V [_ [_ [_ [tl Ek]]]]]]]]]]]].
  assert (Etl : tl = []).
  { pose proof (tx_len _ _ _ _ _ _ _ _ I) as L. pose proof (proj1 Hv) as L1. rewrite Ek, app_length in L.
    rewrite app_length in L1. cbn [length] in L1. apply length_zero_iff_nil. lia. }
  rewrite Etl, app_nil_r in Ek. subst keys.
  assert (Hp : wpend wr = []).
  { unfold cur_view in V. destruct (content (wfs (s_w x2)) (wino wr)); [exact V | discriminate]. }
  rewrite <- V. apply (tsdinvx_view c e t0); assumption.
Qed.
Print Assumptions reopen_timestampsdirect_at_once.

(* ------------------------------------------------------------------ reopen with the file in place *)
(* nothing is lost, nothing is truncated: the files of ops1 stay under their keys, the current file of ops1 is continued,
   the family holds exactly the stream; for a size criterion the files are those of the history without the reopen *)
Theorem reopen_timestampsdirect_in_place c crit t0 off ops1 ops2 :
  tsdcfg c crit -> tag_ok c -> Forall basic_op ops1 -> Forall basic_op ops2 -> Forall tick_ok (ops1 ++ ops2) ->
  (0 <= t0 + ts_e c off)%Z -> (t0 + elapsed (ops1 ++ ops2) + ts_e c off < sec_max)%Z ->
  (N.of_nat (length (ops1 ++ ops2)) <= usize_max)%N ->
  let e := ts_e c off in
  let r := run (sys0 t0 off) (OStart c :: ops1 ++ [OReopen] ++ ops2 ++ [OStop]) in
  let f := wfs (s_w (fst r)) in
  nth_error (snd r) (S (length ops1)) = Some (ObsRes 0 false)
  /\ exists keys1 files1 keys files,
       tsd_view c e (wfs (s_w (fst (run (sys0 t0 off) (OStart c :: ops1 ++ [OStop]))))) keys1 files1
       /\ concat files1 = written ops1
       /\ tsd_view c e f keys files /\ keys_ok keys
       /\ (forall k, In k keys -> (t0 <= fst k <= t0 + elapsed (ops1 ++ ops2))%Z)
       /\ concat files = written (ops1 ++ ops2)
       /\ (exists tl, keys = keys1 ++ tl)
       /\ (forall closed1 cur1, files1 = closed1 ++ [cur1] -> exists t rest, files = closed1 ++ (cur1 ++ t) :: rest)
       /\ (forall m, crit = CSize m -> files = expected_files m None (items false (ops1 ++ ops2))).
Proof.
  intros Hcfg T Hb1 Hb2 Htk Hlo Hhi Hmax e. cbv zeta.
  apply Forall_app in Htk. destruct Htk as [Htk1 Htk2]. rewrite elapsed_app in Hhi |- *. rewrite app_length in Hmax.
  pose proof (elapsed_nonneg _ Htk1) as En1. pose proof (elapsed_nonneg _ Htk2) as En2.
  assert (Y : years_ok e t0 (t0 + elapsed ops1 + elapsed ops2)) by (unfold years_ok, e; lia).
  cbn [run]. destruct (step (sys0 t0 off) (OStart c)) as [x0 ob0] eqn:E0.
  pose proof (wnow_start c t0 off x0 ob0 E0) as W0.
  pose proof (start_rel_tsd c crit t0 off) as R0. rewrite E0 in R0. cbn [fst] in R0. fold e in R0.
  rewrite !run_app.
  pose proof (run_rel_tsd c crit e t0 _ Hcfg T Y ops1 x0 None 0 R0 Hb1 Htk1 ltac:(lia) ltac:(cbn [Nat.add]; lia)) as [R1 [W1 Z1]].
  pose proof (run_length ops1 x0) as L1.
  pose proof (a_run_flat ops1 None (snd (run x0 ops1)) Hb1 L1) as Fl1. cbn [flat app] in Fl1.
  destruct (run x0 ops1) as [x1 obs1] eqn:E1. cbn [fst snd Nat.add] in *.
  assert (Hex : forall m, crit = CSize m -> forall a, a_run None ops1 obs1 = a -> forall fl,
            fl = files_of (s_run m a ops2) -> fl = expected_files m None (items false (ops1 ++ ops2))).
  { intros m Hm a Ea fl ->. rewrite <- s_run_none by (apply Forall_app; split; assumption).
    rewrite s_run_app. rewrite <- (proj1 (Z1 m Hm)), Ea. reflexivity. }
  assert (Hnth : forall (a : obs) rest, nth_error (obs1 ++ a :: rest) (length ops1) = Some a).
  { intros a rest. rewrite nth_error_app2 by lia. rewrite L1, Nat.sub_diag. reflexivity. }
  cbn [run].
  destruct (a_run None ops1 obs1) as [[cl cu]|] eqn:Ea.
  - pose proof R1 as [Ht1 [Ha1 [keys1 [wr [roll [Es [I [V [Hn [Z RS]]]]]]]]]].
    pose proof (tsd_stop_view c crit e t0 _ x1 keys1 wr roll cl cu Hcfg Ht1 Ha1 Es I V Hn Z RS) as V1.
    destruct (reopen_inplace_step_tsd c crit e t0 _ x1 keys1 wr roll cl cu Hcfg Ht1 Ha1 Es I V Hn Z RS) as [x2 [E2 [R2 W2]]].
    assert (E2' : run x1 [OReopen] = (x2, [ObsRes 0 false])) by (cbn [run]; rewrite E2; reflexivity).
    rewrite (run_app [OReopen]), E2'.
    destruct (tail_reltdx c crit e t0 _ [] keys1 _ x2 cl cu 0 ops2 Hcfg T Y (foreign_none (tsd_member c)) R2 Hb2 Htk2 ltac:(lia) ltac:(lia))
      as [keys2 [closed2 [cur2 [D [K [Rg [C [[t Ht] P]]]]]]]].
    destruct (run x2 (ops2 ++ [OStop])) as [x3 obs3]. cbn [fst snd] in *.
    split; [apply Hnth|].
    destruct (step x1 OStop) as [x1s ob1s]. cbn [fst] in *.
    exists keys1, (cl ++ [cu]), (keys1 ++ keys2), (cl ++ closed2 ++ [cur2]).
    split; [exact V1|].
    split. { rewrite concat_app. cbn [concat]. rewrite app_nil_r. exact Fl1. }
    split; [apply tsdx_view_nil; exact D|]. split; [exact K|].
    split; [intros k Ik; specialize (Rg k Ik); lia|].
    split.
    { rewrite ReopenRot.written_app, !concat_app. cbn [concat]. rewrite app_nil_r, <- Fl1. cbn [flat]. rewrite <- app_assoc, <- C. reflexivity. }
    split; [eauto|].
    split.
    { intros closed1 cur1 E. apply app_inj_tail in E. destruct E as [<- <-].
      rewrite Ht. exists t, (List.tl (closed2 ++ [cur2])). reflexivity. }
    intros m Hm. apply (Hex m Hm _ eq_refl). rewrite (P m Hm). apply sx_run_files. exact Hb2.
  - pose proof (stop_rel_tsd c crit e t0 _ x1 None Hcfg R1) as S1.
    destruct (reopen_initial_step_tsd c crit e t0 _ x1 Hcfg R1) as [x2 [E2 [R2 W2]]].
    assert (E2' : run x1 [OReopen] = (x2, [ObsRes 0 false])) by (cbn [run]; rewrite E2; reflexivity).
    rewrite (run_app [OReopen]), E2'.
    pose proof (finish_rel_tsd c crit e t0 _ _ x2 None ops2 Hcfg T Y R2 Hb2 Htk2 ltac:(lia) ltac:(lia)) as [[keys [Rd [K Rg]]] [Fl Sz2]].
    destruct (run x2 (ops2 ++ [OStop])) as [x3 obs3]. cbn [fst snd] in *.
    split; [apply Hnth|].
    destruct (step x1 OStop) as [x1s ob1s]. cbn [fst] in *.
    exists [], [], keys, (files_of (a_run None ops2 (snd (run x2 ops2)))).
    split; [apply tsd_view_nil; auto|]. split; [exact Fl1|]. split; [exact Rd|]. split; [exact K|].
    split; [intros k Ik; specialize (Rg k Ik); lia|].
    split. { rewrite files_of_concat, Fl, ReopenRot.written_app, <- Fl1. reflexivity. }
    split; [exists keys; reflexivity|].
    split; [intros closed1 cur1 E; destruct closed1; discriminate|].
    intros m Hm. apply (Hex m Hm _ eq_refl). rewrite (Sz2 m Hm). reflexivity.
Qed.
Print Assumptions reopen_timestampsdirect_in_place.

(* ================================================================== reset(builder) to another TimestampsDirect family *)
(* (name, content) of the files named by the keys *)
Definition keyed (c : config) (e : Z) (keys : list key) (files : list bytes) : list (bytes * bytes) :=
  combine (List.map (kname c e) keys) files.

Lemma keyed_in c e : forall keys files n d, length keys = length files ->
  (In (n, d) (keyed c e keys files) <-> exists i, i < length files /\ n = kname c e (nth i keys kd) /\ d = nth i files []).
Proof.
  induction keys as [|k ks IH]; intros [|f0 fs] n d Hl; try discriminate.
  - cbn. split; [intros [] | intros [i [Hi _]]; lia].
  - injection Hl as Hl. unfold keyed in *. cbn [List.map combine In length]. rewrite (IH fs n d Hl). split.
    + intros [E|[i [Hi [En Ed]]]].
      * injection E as <- <-. exists 0. split; [lia|]. split; reflexivity.
      * exists (S i). split; [lia|]. split; assumption.
    + intros [[|i] [Hi [En Ed]]].
      * left. cbn [nth] in En, Ed. congruence.
      * right. exists i. split; [lia|]. split; assumption.
Qed.

Lemma keyed_names c e keys files n : length keys = length files ->
  (In n (List.map fst (keyed c e keys files)) <-> exists i, i < length files /\ n = kname c e (nth i keys kd)).
Proof.
  intros Hl. rewrite in_map_iff. split.
  - intros [[n' d] [E H]]. cbn [fst] in E. subst n'. apply keyed_in in H; [|exact Hl]. destruct H as [i [Hi [En _]]]. eauto.
  - intros [i [Hi En]]. exists (n, nth i files []). split; [reflexivity|]. apply keyed_in; [exact Hl|]. eauto.
Qed.

Lemma tsd_view_dir_holds c e f keys files : tsd_view c e f keys files -> dir_holds f (keyed c e keys files).
Proof.
  intros [L [A [B _]]]. split.
  - intros n d Hin. apply keyed_in in Hin; [|exact L]. destruct Hin as [i [Hi [-> ->]]]. exact (A i Hi).
  - intros n j Hn. apply keyed_names; [exact L|]. exact (B n j Hn).
Qed.

(* the names of the family of c are not members of the family of c2 (the family test of the model, tsd_member) *)
Definition foreign_family_tsd (c c2 : config) (e : Z) : Prop :=
  forall k, in_years e (fst k) -> tsd_member c2 (kname c e k) = false.

(* reset: the old writer is dropped - its buffered tail reaches the old current file -, a new writer is installed *)
Lemma reset_step_tsd c crit c2 crit2 e lo n x a :
  tsdcfg c crit -> tsdcfg c2 crit2 -> c_cap c2 = c_cap c -> RelTd c crit e lo n x a ->
  exists x2, step x (OReset c2) = (x2, ObsRes 0 false)
    /\ s_flw x2 = Some (new_flw c2) /\ s_tl x2 = [] /\ wacts (s_w x2) = 0 /\ quiet (s_w x2)
    /\ fs_wf (wfs (s_w x2)) /\ wnow (s_w x2) = wnow (s_w x) /\ woff (s_w x2) = woff (s_w x)
    /\ exists keys, tsd_view c e (wfs (s_w x2)) keys (files_of a) /\ keys_ok keys
         /\ (forall k, In k keys -> (lo <= fst k <= wnow (s_w x))%Z)
         /\ tsd_view c e (wfs (s_w (fst (step x OStop)))) keys (files_of a).
Proof.
  intros Hcfg Hcfg2 Hcap R. rewrite (step_sync_rel_tsd c crit e lo n x _ (OReset c2) Hcfg R).
  assert (Hmode : c_async c2 = c_async c).
  { pose proof Hcfg as [_ [_ [_ ->]]]. destruct Hcfg2 as [_ [_ [_ ->]]]. reflexivity. }
  pose proof R as [Ht [Ha R']]. destruct a as [[cl cu]|].
  - destruct R' as [keys [wr [roll [Es [I [V [Hn [Z RS]]]]]]]]. pose proof (td_quiet _ _ _ _ _ _ _ I) as Q0.
    rewrite (reset_quiet x _ c2 Es eq_refl Q0 Hcap Hmode). cbn [st_tsd f_inner].
    destruct (tsdinv_append c e lo (s_w x) (flushed (s_w x) wr) wr (emptied wr) keys cl (wpend wr) I (flushed_fs _ wr)
                (flushed_env _ wr Q0) eq_refl eq_refl (wr_ok_nil _ _)) as [I1 C1].
    eexists. split; [reflexivity|]. cbn [s_flw s_tl s_w].
    split; [reflexivity|]. split; [exact Ht|]. split; [exact Ha|]. split; [exact Q0|].
    split; [exact (td_wf _ _ _ _ _ _ _ I1)|]. split; [reflexivity|]. split; [reflexivity|].
    exists keys. cbn [files_of].
    split. { replace cu with (cur_view (flushed (s_w x) wr) (emptied wr)).
             - apply (tsdinv_view c e lo); [exact I1 | reflexivity].
             - unfold cur_view. cbn [emptied wino wpend] in C1 |- *. rewrite C1, app_nil_r. exact V. }
    split; [exact (td_keys _ _ _ _ _ _ _ I)|]. split; [exact (td_range _ _ _ _ _ _ _ I)|].
    exact (tsd_stop_view c crit e lo n x keys wr roll cl cu Hcfg Ht Ha Es I V Hn Z RS).
  - pose proof (stop_rel_tsd c crit e lo n x None Hcfg R) as S1.
    destruct R' as [Es [Q [Hn Hi]]].
    rewrite (reset_quiet x _ c2 Es eq_refl Q Hcap Hmode). cbn [new_flw f_inner].
    eexists. split; [reflexivity|]. cbn [s_flw s_tl s_w].
    split; [reflexivity|]. split; [exact Ht|]. split; [exact Ha|]. split; [exact Q|].
    split. { split; intros n0; intros; rewrite (lookup_empty _ n0 Hn) in *; discriminate. }
    split; [reflexivity|]. split; [reflexivity|].
    exists []. cbn [files_of]. split; [apply tsd_view_nil; auto|]. split; [constructor|]. split; [intros k []|].
    destruct (step x OStop) as [xs obs]. cbn [fst]. apply tsd_view_nil. auto.
Qed.

(* the history of the new writer in a directory that holds the old family: the embedding of its history in an empty one *)
Lemma run_stop_embed_tsd fn fi c2 crit2 e2 lo2 hi2 x ops :
  tsdcfg c2 crit2 -> tag_ok c2 -> years_ok e2 lo2 hi2 -> (forall n, In n (fnames fn) -> tsd_member c2 n = false) ->
  RelTd c2 crit2 e2 lo2 0 x None -> Forall basic_op ops -> Forall tick_ok ops ->
  (wnow (s_w x) + elapsed ops <= hi2)%Z -> (N.of_nat (length ops) <= usize_max)%N ->
  fst (run (embedx fn fi x) (ops ++ [OStop])) = embedx fn fi (fst (run x (ops ++ [OStop]))).
Proof.
  intros Hcfg T Y Hfor R Hb Htk Hhi Hmax. pose proof Hcfg as [Hrot [Hts [Hlink Hasync]]].
  set (good := good_td c2 crit2 e2 lo2 hi2).
  pose proof (fun y s (G : good y) (Es : s_flw y = Some s) => good_td_cfg c2 crit2 e2 lo2 hi2 y s G Es) as Hg.
  pose proof (fun y s b (G : good y) (Es : s_flw y = Some s) =>
                write_buffer_embed_good_td fn fi c2 crit2 e2 lo2 hi2 Hcfg Y Hfor y s b G Es) as HW.
  pose proof (fun y s (G : good y) (Es : s_flw y = Some s) =>
                mount_next_embed_good_td fn fi c2 crit2 e2 lo2 hi2 Hcfg Y Hfor y s G Es) as HM.
  assert (F : forall i, fam_g fn good (fst (run x (firstn i ops)))).
  { intros i. apply (good_td_fam fn c2 crit2 e2 lo2 hi2 Hcfg Y Hfor).
    pose proof (elapsed_firstn_le ops Htk i) as El. pose proof (firstn_length_le ops i) as Ll.
    pose proof (run_rel_tsd c2 crit2 e2 lo2 hi2 Hcfg T Y (firstn i ops) x None 0 R (Forall_firstn' _ _ i Hb) (Forall_firstn' _ _ i Htk)
                  ltac:(lia) ltac:(cbn [Nat.add]; lia)) as [R1 [W1 _]].
    split; [eauto | lia]. }
  rewrite !run_app.
  pose proof (run_embed_g fn fi c2 good Hts Hasync Hg HW HM ops x F Hb) as [E1 _].
  pose proof (F (length ops)) as [G1 _]. rewrite firstn_all in G1.
  destruct (run (embedx fn fi x) ops) as [xf1 obsf1]. destruct (run x ops) as [x1 obs1]. cbn [fst snd] in *. subst xf1.
  cbn [run]. pose proof (step_embed_g fn fi c2 good Hts Hasync Hg HW HM x1 OStop G1 Logic.I) as ES.
  destruct (step (embedx fn fi x1) OStop) as [xf2 obf2]. destruct (step x1 OStop) as [x2 ob2]. cbn [fst snd] in *.
  injection ES as -> _. reflexivity.
Qed.

Theorem reset_timestampsdirect c crit c2 crit2 t0 off ops1 ops2 :
  tsdcfg c crit -> tsdcfg c2 crit2 -> tag_ok c -> tag_ok c2 -> c_cap c2 = c_cap c ->
  foreign_family_tsd c c2 (ts_e c off) ->
  Forall basic_op ops1 -> Forall basic_op ops2 -> Forall tick_ok (ops1 ++ ops2) ->
  (0 <= t0 + ts_e c off)%Z -> (t0 + elapsed ops1 + ts_e c off < sec_max)%Z ->
  (0 <= t0 + elapsed ops1 + ts_e c2 off)%Z -> (t0 + elapsed (ops1 ++ ops2) + ts_e c2 off < sec_max)%Z ->
  (N.of_nat (length (ops1 ++ ops2)) <= usize_max)%N ->
  let r := run (sys0 t0 off) (OStart c :: ops1 ++ [OReset c2] ++ ops2 ++ [OStop]) in
  (* the reset is accepted *)
  nth_error (snd r) (S (length ops1)) = Some (ObsRes 0 false)
  /\ exists keys1 files1 keys2 files2,
       (* keys1, files1: the family of c as the history ops1 alone leaves it (the buffered tail has reached its current file) *)
       tsd_view c (ts_e c off) (wfs (s_w (fst (run (sys0 t0 off) (OStart c :: ops1 ++ [OStop]))))) keys1 files1
       /\ keys_ok keys1 /\ (forall k, In k keys1 -> (t0 <= fst k <= t0 + elapsed ops1)%Z)
       /\ concat files1 = written ops1
       (* keys2, files2: the family of c2, as timestampsdirect_stream / _partition describe it for a fresh start at the time of
          the reset *)
       /\ length keys2 = length files2 /\ keys_ok keys2
       /\ (forall k, In k keys2 -> (t0 + elapsed ops1 <= fst k <= t0 + elapsed (ops1 ++ ops2))%Z)
       /\ concat files2 = written ops2
       /\ (forall m, crit = CSize m -> files1 = expected_files m None (items false ops1))
       /\ (forall m2, crit2 = CSize m2 -> files2 = expected_files m2 None (items false ops2))
       (* the directory: both families - the old one untouched -, nothing else *)
       /\ dir_holds (wfs (s_w (fst r))) (keyed c (ts_e c off) keys1 files1 ++ keyed c2 (ts_e c2 off) keys2 files2).
Proof.
  intros Hcfg Hcfg2 T T2 Hcap Hf Hb1 Hb2 Htk Hlo Hhi Hlo2 Hhi2 Hmax. cbv zeta.
  apply Forall_app in Htk. destruct Htk as [Htk1 Htk2]. rewrite elapsed_app in Hhi2 |- *. rewrite app_length in Hmax.
  pose proof (elapsed_nonneg _ Htk1) as En1. pose proof (elapsed_nonneg _ Htk2) as En2.
  set (e := ts_e c off) in *. set (e2 := ts_e c2 off) in *.
  assert (Y : years_ok e t0 (t0 + elapsed ops1)) by (unfold years_ok; lia).
  assert (Y2 : years_ok e2 (t0 + elapsed ops1) (t0 + elapsed ops1 + elapsed ops2)) by (unfold years_ok; lia).
  cbn [run]. destruct (step (sys0 t0 off) (OStart c)) as [x0 ob0] eqn:E0.
  pose proof (wnow_start c t0 off x0 ob0 E0) as W0.
  assert (O0 : woff (s_w x0) = off) by (cbn in E0; injection E0 as <- _; reflexivity).
  pose proof (start_rel_tsd c crit t0 off) as R0. rewrite E0 in R0. cbn [fst] in R0. fold e in R0.
  rewrite !run_app.
  pose proof (run_rel_tsd c crit e t0 _ Hcfg T Y ops1 x0 None 0 R0 Hb1 Htk1 ltac:(lia) ltac:(cbn [Nat.add]; lia)) as [R1 [W1 Z1]].
  (* the zone offset of the world does not change in a history: RelTd says this only for configurations without use_utc,
     the run lemma of TsdAge.v for all *)
  pose proof (TsdAge.start_relTdT c crit t0 off) as R0t. rewrite E0 in R0t. cbn [fst] in R0t. fold e in R0t.
  pose proof (TsdAge.run_relTdT c crit e t0 _ Hcfg T Y ops1 x0 None 0 R0t Hb1 Htk1 ltac:(lia) ltac:(cbn [Nat.add]; lia)) as [_ [O1 _]].
  pose proof (run_length ops1 x0) as L1.
  pose proof (a_run_flat ops1 None (snd (run x0 ops1)) Hb1 L1) as Fl1. cbn [flat app] in Fl1.
  destruct (run x0 ops1) as [x1 obs1]. cbn [fst snd Nat.add] in *.
  set (a1 := a_run None ops1 obs1) in *.
  destruct (reset_step_tsd c crit c2 crit2 e t0 _ x1 a1 Hcfg Hcfg2 Hcap R1)
    as [x2 [E2 [Es2 [Ht2 [Ha2 [Q2 [W2 [Wn2 [Wo2 [keys1 [V2 [K1 [Rg1 Vs]]]]]]]]]]]]].
  assert (E2' : run x1 [OReset c2] = (x2, [ObsRes 0 false])) by (cbn [run]; rewrite E2; reflexivity).
  cbn [run] in Vs |- *. rewrite (run_app [OReset c2]), E2'.
  (* the system after the reset is the embedding of a fresh one *)
  set (fn := names (wfs (s_w x2))). set (fi := inodes (wfs (s_w x2))).
  set (x2' := {| s_flw := Some (new_flw c2); s_w := set_fs (s_w x2) empty_fs; s_tl := s_tl x2; s_dead := s_dead x2 |}).
  assert (Eemb : x2 = embedx fn fi x2').
  { unfold embedx, x2'. cbn [s_flw s_w s_tl s_dead]. unfold embedw. cbn [set_fs wfs wnow woff wfaults wkill werrs wlink wacts].
    rewrite stock_embed. unfold fn, fi. rewrite stock_eta. destruct x2 as [fl w tl dd]. cbn [s_flw s_w s_tl s_dead] in *.
    rewrite Es2. destruct w. reflexivity. }
  assert (R2 : RelTd c2 crit2 e2 (t0 + elapsed ops1) 0 x2' None).
  { split; [exact Ht2|]. split; [exact Ha2|]. split; [reflexivity|]. split; [exact Q2|]. split; [reflexivity|]. split; [reflexivity|].
    cbn [x2' s_w]. split.
    - unfold eoff, e2, ts_e. cbn [set_fs woff]. rewrite Wo2, O1, O0. reflexivity.
    - cbn [set_fs wnow]. lia. }
  assert (Wx2 : wnow (s_w x2') = (t0 + elapsed ops1)%Z) by (cbn [x2' s_w set_fs wnow]; lia).
  pose proof (tsd_view_dir_holds c e _ _ _ V2) as D0.
  assert (Hfor : forall n, In n (fnames fn) -> tsd_member c2 n = false).
  { intros n Hn. change (fnames fn) with (dir_names (wfs (s_w x2))) in Hn. apply dir_names_lookup in Hn. destruct Hn as [j Hj].
    destruct V2 as [Lk [_ [B _]]]. destruct (B n j Hj) as [i [Hi ->]]. apply Hf.
    apply (years_in e t0 (t0 + elapsed ops1) _ Y).
    assert (Ik : In (nth i keys1 kd) keys1) by (apply nth_In; lia). specialize (Rg1 _ Ik). lia. }
  pose proof (run_stop_embed_tsd fn fi c2 crit2 e2 _ _ x2' ops2 Hcfg2 T2 Y2 Hfor R2 Hb2 Htk2 ltac:(lia) ltac:(lia)) as Eend.
  rewrite <- Eemb in Eend.
  pose proof (finish_rel_tsd c2 crit2 e2 _ _ 0 x2' None ops2 Hcfg2 T2 Y2 R2 Hb2 Htk2 ltac:(lia) ltac:(cbn [Nat.add]; lia))
    as [[keys2 [Rd [K2 Rg2]]] [Fl Sz2]].
  destruct (run x2 (ops2 ++ [OStop])) as [x3 obs3]. cbn [fst snd] in *.
  assert (Hnth : forall (a : obs) rest, nth_error (obs1 ++ a :: rest) (length ops1) = Some a).
  { intros a rest. rewrite nth_error_app2 by lia. rewrite L1, Nat.sub_diag. reflexivity. }
  split; [apply Hnth|].
  destruct (step x1 OStop) as [x1s ob1s]. cbn [fst] in *.
  exists keys1, (files_of a1), keys2, (files_of (a_run None ops2 (snd (run x2' ops2)))).
  split; [exact Vs|]. split; [exact K1|]. split; [intros k Ik; specialize (Rg1 k Ik); lia|].
  split; [rewrite files_of_concat; exact Fl1|].
  split; [exact (proj1 Rd)|]. split; [exact K2|]. split; [intros k Ik; specialize (Rg2 k Ik); lia|].
  split; [rewrite files_of_concat; exact Fl|].
  split; [intros m Hm; rewrite (proj1 (Z1 m Hm)); apply s_run_none; exact Hb1|].
  split; [intros m Hm; rewrite (Sz2 m Hm); apply s_run_none; exact Hb2|].
  rewrite Eend. cbn [embedx s_w]. unfold embedw. cbn [set_fs wfs].
  apply dir_holds_embed.
  - unfold fn, fi. rewrite stock_eta. exact W2.
  - unfold fn, fi. rewrite stock_eta. exact D0.
  - apply tsd_view_dir_holds. exact Rd.
  - intros n Hn Hn'. apply keyed_names in Hn; [|exact (proj1 V2)]. apply keyed_names in Hn'; [|exact (proj1 Rd)].
    destruct Hn as [i [Hi ->]]. destruct Hn' as [i' [Hi' E]].
    assert (Ik : In (nth i keys1 kd) keys1) by (apply nth_In; rewrite (proj1 V2); exact Hi).
    assert (Ik' : In (nth i' keys2 kd) keys2) by (apply nth_In; rewrite (proj1 Rd); exact Hi').
    assert (M : tsd_member c2 (kname c e (nth i keys1 kd)) = false).
    { apply Hf. apply (years_in e t0 (t0 + elapsed ops1) _ Y). specialize (Rg1 _ Ik). lia. }
    rewrite E in M.
    assert (Yk' : in_years e2 (fst (nth i' keys2 kd))).
    { apply (years_in e2 _ _ _ Y2). specialize (Rg2 _ Ik'). lia. }
    refine (kname_not_extra c2 e2 (nth i' keys2 kd) [kname c2 e2 (nth i' keys2 kd)] _ Yk' (or_introl eq_refl)).
    intros n0 [<-|[]]. exact M.
Qed.
Print Assumptions reset_timestampsdirect.

(* a simple sufficient condition: the fixed name parts (basename [_discriminant]) differ, neither is a prefix of the other *)
Lemma foreign_family_tsd_prefix c c2 e :
  is_prefix (fixed0 c) (fixed0 c2) = false -> is_prefix (fixed0 c2) (fixed0 c) = false -> foreign_family_tsd c c2 e.
Proof.
  intros H1 H2 k Yk. apply foreign_no_prefix_ts. rewrite (kname_shape c e k Yk).
  unfold under. destruct (fixed0 c) as [|f0 fr] eqn:E; [discriminate|]. rewrite <- app_assoc. apply not_prefix_app; assumption.
Qed.

(* ================================================================== examples (non-vacuity) and findings *)
Require FL.Flw.ReopenFacts.
Import String.StringSyntax.
Open Scope string_scope.

Definition ext_cfg (base : String.string) (cap : option nat) (app : bool) : config :=
  {| c_spec := {| fbase := bs base; fdisc := None; fts := false; fsfx := Some (bs "log") |};
     c_append := app; c_cap := cap; c_rot := Some (CSize 3, NTimestampsDirect, KNever); c_utc := false;
     c_symlink := false; c_bg := false; c_async := false; c_start := None |}.

Definition ext_a := ext_cfg "a" (Some 8) false.   (* a_r<ts>[.restart-NNNN].log; limit 3 bytes, BufWriter of 8 bytes *)
Definition ext_aa := ext_cfg "a" (Some 8) true.   (* the same family, append *)
(* the histories of ReopenRot.v: ex_ops1 = "abcd" | "ef" flush "gh" (in the buffer);  ex_ops2 = "ij" "kl" tick 5 "mnop" snap "q" *)
Definition ext_k0 : bytes := kname ext_a 0 (0%Z, 0).     (* a_r1970-01-01_00-00-00.log *)
Definition ext_k1 : bytes := kname ext_a 0 (0%Z, 1).     (* a_r1970-01-01_00-00-00.restart-0000.log *)

Example ext_hyps :
  tsdcfg ext_a (CSize 3) /\ tag_ok ext_a /\ Forall basic_op ex_ops1 /\ Forall basic_op ex_ops2
  /\ Forall tick_ok (ex_ops1 ++ ex_ops2) /\ Forall tick_ok ex_ops1
  /\ (0 <= 0 + ts_e ext_a 0)%Z /\ (0 + elapsed (ex_ops1 ++ ex_ops2) + ts_e ext_a 0 < sec_max)%Z
  /\ (N.of_nat (length (ex_ops1 ++ ex_ops2)) <= usize_max)%N
  /\ tsd_member ext_a ex_moved = false
  /\ ext_k0 = bs "a_r1970-01-01_00-00-00.log" /\ ext_k1 = bs "a_r1970-01-01_00-00-00.restart-0000.log".
Proof.
  split; [repeat split|]. split; [apply tag_free_ok; split; vm_compute; reflexivity|].
  split; [repeat constructor|]. split; [repeat constructor|].
  split; [repeat (apply Forall_cons; [cbn [tick_ok]; first [exact Logic.I | lia]|]); apply Forall_nil|].
  split; [repeat (apply Forall_cons; [cbn [tick_ok]; first [exact Logic.I | lia]|]); apply Forall_nil|].
  split; [vm_compute; discriminate|]. split; [vm_compute; reflexivity|]. split; [vm_compute; discriminate|].
  repeat split; vm_compute; reflexivity.
Qed.

(* the history ops1 leaves <ts 0> = "abcd", <ts 0>.restart-0000 = "efgh": the current file is the second one *)
Lemma ext_view1 :
  tsd_view ext_a (ts_e ext_a 0) (wfs (s_w (fst (run (sys0 0 0) (OStart ext_a :: ex_ops1 ++ [OStop]))))) [(0%Z, 0); (0%Z, 1)]
           ([bs "abcd"] ++ [bs "efgh"])
  /\ keys_ok [(0%Z, 0); (0%Z, 1)] /\ (forall k, In k [(0%Z, 0); (0%Z, 1)] -> (0 <= fst k <= 0 + elapsed ex_ops1)%Z).
Proof.
  destruct ext_hyps as (Hc & T & H1 & _ & _ & Htk1 & _).
  destruct (timestampsdirect_partition ext_a 3 0 0 ex_ops1 Hc T H1 Htk1) as [keys [V [K Rg]]];
    [vm_compute; discriminate | vm_compute; reflexivity | vm_compute; discriminate|].
  assert (E : expected_files 3 None (items false ex_ops1) = [bs "abcd"] ++ [bs "efgh"]) by (vm_compute; reflexivity).
  rewrite E in V.
  assert (Ek : keys = [(0%Z, 0); (0%Z, 1)]).
  { pose proof (proj1 V) as L. cbn [length app] in L.
    pose proof (keys_one_second keys 0%Z K ltac:(intros k Ik; specialize (Rg k Ik); change (elapsed ex_ops1) with 0%Z in Rg; lia)) as N1.
    destruct keys as [|k0 [|k1 [|k2 r]]]; try discriminate L.
    rewrite <- (N1 0 ltac:(cbn [length]; lia)), <- (N1 1 ltac:(cbn [length]; lia)). reflexivity. }
  subst keys. split; [exact V|]. split; [exact K | exact Rg].
Qed.

(* ---- reopen_timestampsdirect on a history ---- *)
(* at the rename "efgh" is partly on disk, partly in the buffer; reopen succeeds; the new file at the original path has the
   same time stamp and the same restart counter 0000; the next rotation - still in second 0 - takes the counter 0001 *)
Example ext_reopen_computed :
  ex_dir (OStart ext_a :: ex_ops1)
  = [(bs "a_r1970-01-01_00-00-00.log", bs "abcd"); (bs "a_r1970-01-01_00-00-00.restart-0000.log", bs "ef")]
  /\ ex_dir (OStart ext_a :: ex_ops1 ++ [OExtRename ext_k1 ex_moved])
  = [(bs "a.old", bs "ef"); (bs "a_r1970-01-01_00-00-00.log", bs "abcd")]
  /\ ex_dir (OStart ext_a :: ex_ops1 ++ [OExtRename ext_k1 ex_moved; OReopen])
  = [(bs "a.old", bs "efgh"); (bs "a_r1970-01-01_00-00-00.log", bs "abcd"); (bs "a_r1970-01-01_00-00-00.restart-0000.log", [])]
  /\ ex_dir (OStart ext_a :: ex_ops1 ++ [OExtRename ext_k1 ex_moved; OReopen] ++ ex_ops2 ++ [OStop])
  = [(bs "a.old", bs "efgh"); (bs "a_r1970-01-01_00-00-00.log", bs "abcd"); (bs "a_r1970-01-01_00-00-00.restart-0000.log", []);
     (bs "a_r1970-01-01_00-00-00.restart-0001.log", bs "ijkl"); (bs "a_r1970-01-01_00-00-05.log", bs "mnop");
     (bs "a_r1970-01-01_00-00-05.restart-0000.log", bs "q")]
  /\ nth_error (snd (run (sys0 0 0) (OStart ext_a :: ex_ops1 ++ [OExtRename ext_k1 ex_moved; OReopen] ++ ex_ops2 ++ [OStop])))
               (S (S (length ex_ops1))) = Some (ObsRes 0 false).
Proof. repeat (split; [vm_compute; reflexivity|]); vm_compute; reflexivity. Qed.

(* ... what the theorem says about it *)
Example ext_reopen_thm :
  exists keys2 closed2 cur2,
    tsdx_view ext_a 0 (wfs (s_w (fst (run (sys0 0 0) (OStart ext_a :: ex_ops1 ++ [OExtRename ext_k1 ex_moved; OReopen] ++ ex_ops2 ++ [OStop])))))
      ([(0%Z, 0); (0%Z, 1)] ++ keys2) ([bs "abcd"] ++ closed2 ++ [cur2]) [(ex_moved, bs "efgh")]
    /\ keys_ok ([(0%Z, 0); (0%Z, 1)] ++ keys2)
    /\ concat closed2 ++ cur2 = written ex_ops2.
Proof.
  destruct ext_hyps as (Hc & T & H1 & H2 & Htk & _ & Hlo & Hhi & Hmax & Hm & _).
  destruct ext_view1 as (V1 & K1 & Rg1).
  pose proof (reopen_timestampsdirect ext_a (CSize 3) 0 0 ex_ops1 ex_ops2 ex_moved [(0%Z, 0); (0%Z, 1)] [bs "abcd"] (bs "efgh")
                Hc T H1 H2 Htk Hlo Hhi Hmax Hm V1 K1 Rg1) as [_ [_ X]].
  destruct X as (keys2 & closed2 & cur2 & D & K & _ & _ & C & _). exists keys2, closed2, cur2. auto.
Qed.

(* the size rule: the files of ops2 - the first one at the original path - are  "" | ijkl | mnop | q *)
Example ext_reopen_partition_thm :
  exists keys2,
    tsdx_view ext_a 0 (wfs (s_w (fst (run (sys0 0 0) (OStart ext_a :: ex_ops1 ++ [OExtRename ext_k1 ex_moved; OReopen] ++ ex_ops2 ++ [OStop])))))
      ([(0%Z, 0); (0%Z, 1)] ++ keys2) [bs "abcd"; []; bs "ijkl"; bs "mnop"; bs "q"] [(ex_moved, bs "efgh")]
    /\ keys_ok ([(0%Z, 0); (0%Z, 1)] ++ keys2).
Proof.
  destruct ext_hyps as (Hc & T & H1 & H2 & Htk & _ & Hlo & Hhi & Hmax & Hm & _).
  destruct ext_view1 as (V1 & K1 & Rg1).
  destruct (reopen_timestampsdirect_partition ext_a 3 0 0 ex_ops1 ex_ops2 ex_moved [(0%Z, 0); (0%Z, 1)] [bs "abcd"] (bs "efgh")
                Hc T H1 H2 Htk Hlo Hhi Hmax Hm V1 K1 Rg1) as (keys2 & h & tl & P & D & K).
  assert (E2 : partition 3 [] (bs "efgh") (items true ex_ops2) = (bs "efgh" ++ []) :: [bs "ijkl"; bs "mnop"; bs "q"])
    by (vm_compute; reflexivity).
  rewrite E2 in P. injection P as Ph Pt. subst h tl. exists keys2. split; [exact D | exact K].
Qed.

(* right after the reopen: the same keys, an empty file under the newest one *)
Example ext_reopen_at_once_thm :
  tsdx_view ext_a 0 (wfs (s_w (fst (run (sys0 0 0) (OStart ext_a :: ex_ops1 ++ [OExtRename ext_k1 ex_moved; OReopen])))))
    [(0%Z, 0); (0%Z, 1)] [bs "abcd"; []] [(ex_moved, bs "efgh")].
Proof.
  destruct ext_hyps as (Hc & T & H1 & _ & _ & Htk1 & _ & _ & _ & Hm & _).
  destruct ext_view1 as (V1 & K1 & Rg1).
  refine (proj2 (reopen_timestampsdirect_at_once ext_a (CSize 3) 0 0 ex_ops1 ex_moved [(0%Z, 0); (0%Z, 1)] [bs "abcd"] (bs "efgh")
                   Hc T H1 Htk1 _ _ _ Hm V1 K1 Rg1)); [vm_compute; discriminate | vm_compute; reflexivity | vm_compute; discriminate].
Qed.

(* FINDING 1 (as for the number namings): the size count is not reset by reopen_outputfile(): the moved file was over the
   limit, so the first record after the reopen rotates at once and the new file at the original path stays EMPTY *)
Example ext_reopen_empty_file :
  ReopenFacts.assoc ext_k1
    (ex_dir (OStart ext_a :: ex_ops1 ++ [OExtRename ext_k1 ex_moved; OReopen] ++ ex_ops2 ++ [OStop])) = Some []
  /\ expected_files 3 None (items false ex_ops2) = [bs "ijkl"; bs "mnop"; bs "q"].
Proof. repeat (split; [vm_compute; reflexivity|]); vm_compute; reflexivity. Qed.

(* FINDING 2: the state after the reopen: the same path, the same time stamp in the naming state, size count 4 (the bytes of
   a.old), an unbuffered writer.  The rotation that follows in the SAME second takes the restart counter 0001: the name
   ...restart-0000 is occupied again - by the new file.  Over time this name has named two different files; in the directory
   no name is used twice and the sequence <ts>, .restart-0000, .restart-0001 has no gap. *)
Example ext_reopen_state :
  match s_flw (ReopenFacts.end_of (OStart ext_a :: ex_ops1 ++ [OExtRename ext_k1 ex_moved; OReopen])) with
  | Some s => match f_inner s with
              | Active (Some rs) wr path =>
                (rs_naming rs, rs_roll rs, wcap wr, wpend wr, path) = (NSTs 0 None std_fmt, RSize 3 4, None, [], ext_k1)
              | _ => False end
  | None => False end.
Proof. vm_compute. reflexivity. Qed.

(* ... whereas WITHOUT the reopen the writer goes on writing into the moved file, the name is free at the next rotation and
   is taken again: then the name is used for a second file while the first one (a.old) still receives nothing more *)
Example ext_rename_without_reopen :
  ex_dir (OStart ext_a :: ex_ops1 ++ [OExtRename ext_k1 ex_moved] ++ ex_ops2 ++ [OStop])
  = [(bs "a.old", bs "efgh"); (bs "a_r1970-01-01_00-00-00.log", bs "abcd"); (bs "a_r1970-01-01_00-00-00.restart-0000.log", bs "ijkl");
     (bs "a_r1970-01-01_00-00-05.log", bs "mnop"); (bs "a_r1970-01-01_00-00-05.restart-0000.log", bs "q")].
Proof. vm_compute. reflexivity. Qed.

(* FINDING 3: the hypothesis tsd_member c moved = false.  A member name is never overwritten or truncated - the rotation
   makes its names collision-free -, so nothing is lost, unlike with NumbersDirect naming (exd_reopen_family_name_loses_records):
   (a) renamed to the next restart name of the same second: the rotation skips it; in key order the files still read as
       the stream  abcd | "" | efgh | ijkl | mnop | q;
   (b) renamed to a name with a LATER time stamp (second 5): in key order the files read
       abcd | "" | ijkl | efgh | mnop | q : the records "efgh" are MISPLACED behind "ijkl". *)
Example ext_reopen_family_name_misplaces :
  tsd_member ext_a (kname ext_a 0 (0%Z, 2)) = true /\ tsd_member ext_a (kname ext_a 0 (5%Z, 0)) = true
  /\ ex_dir (OStart ext_a :: ex_ops1 ++ [OExtRename ext_k1 (kname ext_a 0 (0%Z, 2)); OReopen] ++ ex_ops2 ++ [OStop])
  = [(bs "a_r1970-01-01_00-00-00.log", bs "abcd"); (bs "a_r1970-01-01_00-00-00.restart-0000.log", []);
     (bs "a_r1970-01-01_00-00-00.restart-0001.log", bs "efgh"); (bs "a_r1970-01-01_00-00-00.restart-0002.log", bs "ijkl");
     (bs "a_r1970-01-01_00-00-05.log", bs "mnop"); (bs "a_r1970-01-01_00-00-05.restart-0000.log", bs "q")]
  /\ ex_dir (OStart ext_a :: ex_ops1 ++ [OExtRename ext_k1 (kname ext_a 0 (5%Z, 0)); OReopen] ++ ex_ops2 ++ [OStop])
  = [(bs "a_r1970-01-01_00-00-00.log", bs "abcd"); (bs "a_r1970-01-01_00-00-00.restart-0000.log", []);
     (bs "a_r1970-01-01_00-00-00.restart-0001.log", bs "ijkl"); (bs "a_r1970-01-01_00-00-05.log", bs "efgh");
     (bs "a_r1970-01-01_00-00-05.restart-0000.log", bs "mnop"); (bs "a_r1970-01-01_00-00-05.restart-0001.log", bs "q")].
Proof. repeat (split; [vm_compute; reflexivity|]); vm_compute; reflexivity. Qed.

(* ---- reopen_timestampsdirect_in_place on a history: the directory is the one of the history without the reopen ---- *)
Example ext_in_place_computed :
  ex_dir (OStart ext_a :: ex_ops1 ++ [OReopen] ++ ex_ops2 ++ [OStop])
  = [(bs "a_r1970-01-01_00-00-00.log", bs "abcd"); (bs "a_r1970-01-01_00-00-00.restart-0000.log", bs "efgh");
     (bs "a_r1970-01-01_00-00-00.restart-0001.log", bs "ijkl"); (bs "a_r1970-01-01_00-00-05.log", bs "mnop");
     (bs "a_r1970-01-01_00-00-05.restart-0000.log", bs "q")]
  /\ ex_dir (OStart ext_a :: ex_ops1 ++ ex_ops2 ++ [OStop]) = ex_dir (OStart ext_a :: ex_ops1 ++ [OReopen] ++ ex_ops2 ++ [OStop])
  /\ nth_error (snd (run (sys0 0 0) (OStart ext_a :: ex_ops1 ++ [OReopen] ++ ex_ops2 ++ [OStop]))) (S (length ex_ops1))
     = Some (ObsRes 0 false).
Proof. repeat (split; [vm_compute; reflexivity|]); vm_compute; reflexivity. Qed.

Example ext_in_place_thm :
  exists keys,
    tsd_view ext_a 0 (wfs (s_w (fst (run (sys0 0 0) (OStart ext_a :: ex_ops1 ++ [OReopen] ++ ex_ops2 ++ [OStop])))))
             keys [bs "abcd"; bs "efgh"; bs "ijkl"; bs "mnop"; bs "q"]
    /\ keys_ok keys.
Proof.
  destruct ext_hyps as (Hc & T & H1 & H2 & Htk & _ & Hlo & Hhi & Hmax & _).
  pose proof (reopen_timestampsdirect_in_place ext_a (CSize 3) 0 0 ex_ops1 ex_ops2 Hc T H1 H2 Htk Hlo Hhi Hmax) as [_ X].
  destruct X as (keys1 & files1 & keys & files & _ & _ & V & K & _ & _ & _ & _ & P).
  rewrite (P 3%N eq_refl) in V. exists keys. split; [exact V | exact K].
Qed.

(* ---- reset_timestampsdirect on a history: reset from the family a_ to the family b_ ---- *)
Definition ext_b := ext_cfg "b" (Some 8) true.
Example ext_reset_computed :
  ex_dir (OStart ext_a :: ex_ops1 ++ [OReset ext_b] ++ ex_ops2 ++ [OStop])
  = [(bs "a_r1970-01-01_00-00-00.log", bs "abcd"); (bs "a_r1970-01-01_00-00-00.restart-0000.log", bs "efgh");
     (bs "b_r1970-01-01_00-00-00.log", bs "ijkl"); (bs "b_r1970-01-01_00-00-05.log", bs "mnop");
     (bs "b_r1970-01-01_00-00-05.restart-0000.log", bs "q")]
  /\ nth_error (snd (run (sys0 0 0) (OStart ext_a :: ex_ops1 ++ [OReset ext_b] ++ ex_ops2 ++ [OStop]))) (S (length ex_ops1))
     = Some (ObsRes 0 false).
Proof. repeat (split; [vm_compute; reflexivity|]); vm_compute; reflexivity. Qed.

Example ext_reset_thm :
  exists keys1 keys2,
    dir_holds (wfs (s_w (fst (run (sys0 0 0) (OStart ext_a :: ex_ops1 ++ [OReset ext_b] ++ ex_ops2 ++ [OStop])))))
      (keyed ext_a 0 keys1 [bs "abcd"; bs "efgh"] ++ keyed ext_b 0 keys2 [bs "ijkl"; bs "mnop"; bs "q"])
    /\ keys_ok keys1 /\ keys_ok keys2 /\ length keys1 = 2 /\ length keys2 = 3.
Proof.
  destruct ext_hyps as (Hc & T & H1 & H2 & Htk & _ & Hlo & Hhi & Hmax & _).
  assert (Hc2 : tsdcfg ext_b (CSize 3)) by (repeat split).
  assert (T2 : tag_ok ext_b) by (apply tag_free_ok; split; vm_compute; reflexivity).
  assert (Hf : foreign_family_tsd ext_a ext_b (ts_e ext_a 0)) by (apply foreign_family_tsd_prefix; vm_compute; reflexivity).
  destruct (reset_timestampsdirect ext_a (CSize 3) ext_b (CSize 3) 0 0 ex_ops1 ex_ops2 Hc Hc2 T T2 eq_refl Hf H1 H2 Htk Hlo) as [_ X];
    [vm_compute; reflexivity | vm_compute; discriminate | exact Hhi | exact Hmax|].
  destruct X as (keys1 & files1 & keys2 & files2 & V1 & K1 & _ & _ & L2 & K2 & _ & _ & E1 & E2 & D).
  rewrite (E1 3%N eq_refl) in D, V1. rewrite (E2 3%N eq_refl) in D, L2.
  exists keys1, keys2. split; [exact D|]. split; [exact K1|]. split; [exact K2|]. split; [exact (proj1 V1) | exact L2].
Qed.
