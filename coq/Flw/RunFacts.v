(* Small facts about Run.step shared by the invariant proofs. *)
Require Import FL.Base.Bytes FL.Names.FileSpec FL.Flw.Model FL.Flw.Run.

(* without a start-time part in the file name there is nothing to fix at the first operation *)
Lemma ensure_start_plain s w : fts (c_spec (f_cfg s)) = false -> ensure_start s w = s.
Proof. intros H. unfold ensure_start. rewrite H. reflexivity. Qed.

Lemma apply_start_plain x o :
  (forall s, s_flw x = Some s -> fts (c_spec (f_cfg s)) = false) -> apply_start x o = x.
Proof.
  intros H. unfold apply_start. destruct (s_flw x) as [s|] eqn:E; [|reflexivity].
  rewrite (ensure_start_plain s (s_w x) (H s eq_refl)).
  destruct (names_computed o && negb (f_poisoned s)); [|reflexivity]. destruct x; cbn in *; congruence.
Qed.

Lemma step_plain x o :
  (forall s, s_flw x = Some s -> fts (c_spec (f_cfg s)) = false) -> step x o = step_core x o.
Proof. intros H. unfold step. rewrite apply_start_plain by exact H. reflexivity. Qed.

(* a writer that is synchronous and has no start-time part in its name: a step is a step of the synchronous handle *)
Lemma step_sync_cfg x o s :
  s_flw x = Some s -> fts (c_spec (f_cfg s)) = false -> c_async (f_cfg s) = false -> step x o = sync_step x o.
Proof.
  intros Es Hts Ha. rewrite step_plain by (intros s' Es'; rewrite Es in Es'; injection Es' as <-; exact Hts).
  unfold step_core. rewrite Es. unfold is_async. rewrite Ha. reflexivity.
Qed.

Lemma step_sync_none x o : s_flw x = None -> step x o = sync_step x o.
Proof.
  intros E. rewrite step_plain by (intros s Es; rewrite E in Es; discriminate). unfold step_core. rewrite E. reflexivity.
Qed.

Lemma run_app : forall ops1 ops2 x, run x (ops1 ++ ops2) =
  let '(x1, o1) := run x ops1 in let '(x2, o2) := run x1 ops2 in (x2, o1 ++ o2).
Proof.
  induction ops1 as [|o r IH]; intros ops2 x; cbn [run app].
  - destruct (run x ops2). reflexivity.
  - destruct (step x o) as [x1 ob]. rewrite IH. destruct (run x1 r) as [x2 o1]. destruct (run x2 ops2). reflexivity.
Qed.

Lemma run_length : forall ops x, length (snd (run x ops)) = length ops.
Proof.
  induction ops as [|o r IH]; intros x; [reflexivity|]. cbn [run]. destruct (step x o) as [x1 ob].
  specialize (IH x1). destruct (run x1 r). cbn in *. rewrite IH. reflexivity.
Qed.
