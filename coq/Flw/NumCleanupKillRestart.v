(* Numbers naming with a cleanup strategy: a new writer with the same configuration on the directory that a KILLED writer
   left behind.  It starts successfully whatever the kill point was, repairs the leftovers with its first write (the
   archive of an interrupted compression is removed - redundant_gz - and its original compressed anew if the limits say
   so; files beyond the limits are removed), and ends with a tail of (acknowledged records ++ its own records). *)
Require Import FL.Base.Bytes FL.Base.BytesFacts FL.Base.PathName FL.Fs.Fs FL.Fs.FsFacts FL.Time.TsFormat
  FL.Names.FileSpec FL.Names.SortFacts FL.Names.FamilyFacts FL.Flw.Model FL.Flw.ModelFacts FL.Flw.NumFs
  FL.Flw.NumInv FL.Flw.Run FL.Flw.NumRun FL.Flw.NumListing FL.Flw.NumTheorems FL.Flw.CleanupFacts
  FL.Flw.NumCleanupNames FL.Flw.NumCleanupStep FL.Flw.NumCleanupRun FL.Flw.NumRestart FL.Flw.KillFacts FL.Flw.NumKill
  FL.Flw.NumKillRestart FL.Flw.NoPanic FL.Flw.NumCleanupKillDir FL.Flw.NumCleanupKillStep FL.Flw.NumCleanupKill
  FL.Flw.NumCleanupKillListing.
From Coq Require Import ZifyN ZifyNat ZifyBool.
Open Scope nat_scope.

Section Restart.
Variables (c : config) (crit : criterion) (k : cleanup) (n m : nat).
Hypothesis Hcfg : numkcfg c crit k.
Hypothesis Hk : klim k = Some (n, m).
Hypothesis Hsfx : sfx_ok (c_spec c).

(* ------------------------------------------------------------------ the file system under rename / create of rCURRENT *)
Lemma kst_rename_cur f0 f closed cu lo mid red f1 : kst c f0 f closed (Some cu) lo mid red ->
  rename f (cname c) (rname c (length closed)) = Some f1 -> kst c f1 f1 (closed ++ [cu]) None lo mid red.
Proof.
  intros [W Nd X _] Er. destruct (xdir_cur_lookup c f closed cu lo mid red X) as (j & Lj & _). constructor.
  - exact (wf_rename _ _ _ _ W Er).
  - exact (nd_rename _ _ _ _ Er Nd).
  - eapply xdir_ext; [intros y; apply (file_of_rename f (cname c) (rname c (length closed)) j);
                       [intros E; exact (rname_not_cname c _ (eq_sym E)) | exact Lj | exact Er]|].
    apply xdir_rename_cur. exact X.
  - apply same_at_refl.
Qed.

Lemma kst_create_cur f0 f closed lo mid red now : kst c f0 f closed None lo mid red ->
  let f2 := fst (create_file f (cname c) 0%N now) in
  kst c f2 f2 closed (Some []) lo mid red /\ lookup f2 (cname c) = Some (length (inodes f))
  /\ file_of f2 (cname c) = Some (fresh_file now).
Proof.
  intros [W Nd X _] f2. assert (Lc : lookup f (cname c) = None) by (apply file_of_none; exact (xd_cur _ _ _ _ _ _ _ X)).
  assert (Ff : file_of f2 (cname c) = Some (fresh_file now)) by (unfold f2; rewrite file_of_create by exact W; apply fupd_same).
  split; [|split; [|exact Ff]].
  - constructor.
    + apply wf_create; assumption.
    + apply nd_create; assumption.
    + eapply xdir_ext; [intros y; apply file_of_create; exact W|]. apply (xdir_set_cur c _ closed None lo mid red); [exact X|]. repeat split.
    + apply same_at_refl.
  - pose proof (create_file_spec f (cname c) 0%N now) as CS. unfold create_file in CS. destruct CS as (_ & _ & La & _). exact La.
Qed.

(* ------------------------------------------------------------------ the index that the new writer reads from the directory *)
Lemma init_listing w closed ocur lo mid red :
  quiet w -> kst c (wfs w) (wfs w) closed ocur lo mid red -> (lo < length closed \/ length closed = 0) ->
  (N.of_nat (length closed) <= u32_max)%N ->
  with_listing w (fun w' =>
     match get_highest_index (woff w') (c_spec c) (fixed_of c w') (wfs w') with
     | None => None
     | Some (Some i) => Some (i + 1)%N
     | Some None => Some 0%N
     end) = (Ok (N.of_nat (length closed)), w).
Proof.
  intros Q [W Nd X _] Hlo HL. destruct Hcfg as (_ & Hts & _). unfold with_listing. rewrite tick_quiet by assumption.
  rewrite (fixed_of_fixed0 c w Hts). rewrite (highest_index_xdir c (woff w) (wfs w) closed ocur lo mid red Hsfx HL X Nd Hlo).
  destruct (length closed) as [|l]; [reflexivity|]. do 2 f_equal. lia.
Qed.

(* what the writer makes of the directory it finds, before anything is written (as init_view_o) *)
Definition init_view_k (closed : list bytes) (ocur : option bytes) : list bytes * bytes := init_view_o c (closed, ocur).

(* ------------------------------------------------------------------ initialisation on the directory of a killed writer *)
Lemma initialize_xdir w closed ocur lo mid red :
  quiet w -> kst c (wfs w) (wfs w) closed ocur lo mid red -> uncl k (length closed) lo mid ->
  (lo < length closed \/ length closed = 0) -> (N.of_nat (length closed) <= u32_max)%N ->
  exists w' wr roll,
    initialize c w = (Ok (Active (Some (mk_rsk k (NSNumR (N.of_nat (length (fst (init_view_k closed ocur))))) roll)) wr (cname c)), w')
    /\ NumKInv c w' wr (fst (init_view_k closed ocur))
         (k_lo k (length (fst (init_view_k closed ocur)))) (k_mid k (length (fst (init_view_k closed ocur))))
    /\ cur_view w' wr = snd (init_view_k closed ocur)
    /\ roll_size_ok roll (length (snd (init_view_k closed ocur)))
    /\ same_env w w'
    /\ (forall m0, crit = CSize m0 -> exists z, roll = RSize m0 z).
Proof.
  intros Q K U Hlo HL. pose proof Hcfg as (Hrot & Hts & Hlink & Has & Hbg).
  (* the naming step: index, rename *)
  assert (N1 : exists w1 cl1 oc1,
            init_naming c w NNumbers = (Ok (NSNumR (N.of_nat (length cl1)), cur_infix), w1) /\ same_env w w1
            /\ kst c (wfs w1) (wfs w1) cl1 oc1 lo mid red /\ uncl k (length cl1) lo mid
            /\ (cl1, ocb oc1) = init_view_k closed ocur /\ (oc1 <> None -> c_append c = true)).
  { unfold init_naming, index_for_rcurrent. rewrite (init_listing w closed ocur lo mid red Q K Hlo HL).
    unfold init_view_k, init_view_o. cbn [fst snd].
    destruct (c_append c) eqn:Happ; cbn [negb bind].
    - exists w, closed, ocur. split; [reflexivity|]. split; [apply same_env_refl; exact Q|]. split; [exact K|].
      split; [exact U|]. split; [destruct ocur; reflexivity | auto].
    - rewrite !(name_of_fixed c w) by assumption. fold (nm c cur_infix) (nm c (number_infix (N.of_nat (length closed)))).
      fold (cname c) (rname c (length closed)).
      pose proof (p_rename_quiet w (cname c) (rname c (length closed)) Q) as PR.
      destruct ocur as [cu|].
      + destruct (xdir_cur_lookup c _ closed cu lo mid red (ks_x _ _ _ _ _ _ _ _ K)) as (j & Lj & _).
        destruct (rename_spec (wfs w) (cname c) (rname c (length closed)) j (fun E => rname_not_cname c _ (eq_sym E)) Lj)
          as (f1 & Er & _).
        rewrite Er in PR. destruct PR as (w1 & Epr & F1 & S1). rewrite Epr. cbn [bind].
        exists w1, (closed ++ [cu]), None.
        assert (EL : length (closed ++ [cu]) = S (length closed)) by (rewrite app_length; cbn [length]; lia).
        split. { rewrite EL. replace (N.of_nat (length closed) + 1)%N with (N.of_nat (S (length closed))) by lia. reflexivity. }
        split; [exact S1|]. split; [rewrite F1; exact (kst_rename_cur _ _ _ _ _ _ _ _ K Er)|].
        split; [rewrite EL; apply uncl_grow; exact U|]. split; [reflexivity | congruence].
      + assert (Lc : lookup (wfs w) (cname c) = None) by (apply file_of_none; exact (xd_cur _ _ _ _ _ _ _ (ks_x _ _ _ _ _ _ _ _ K))).
        rewrite rename_none in PR by exact Lc. rewrite PR. cbn [bind].
        exists w, closed, None. split; [reflexivity|]. split; [apply same_env_refl; exact Q|]. split; [exact K|].
        split; [exact U|]. split; [reflexivity | congruence]. }
  destruct N1 as (w1 & cl1 & oc1 & En & S1 & K1 & U1 & Ev & Happ1).
  (* the current file is opened *)
  assert (O2 : exists w2 ino fl,
            open_log_file c w1 (Some cur_infix) = (Ok ({| wino := ino; wpend := []; wcap := c_cap c |}, cname c), w2) /\ same_env w1 w2
            /\ kst c (wfs w2) (wfs w2) cl1 (Some (ocb oc1)) lo mid red /\ lookup (wfs w2) (cname c) = Some ino
            /\ file_of (wfs w2) (cname c) = Some fl /\ fdata fl = ocb oc1).
  { unfold open_log_file. rewrite (name_of_fixed c w1) by assumption. fold (nm c cur_infix) (cname c).
    unfold do_symlink. rewrite Hlink. pose proof (proj1 S1) as Q1.
    destruct oc1 as [cu|].
    - rewrite (Happ1 ltac:(discriminate)).
      destruct (xdir_cur_lookup c _ cl1 cu lo mid red (ks_x _ _ _ _ _ _ _ _ K1)) as (j & Lj & [Gj Dj] & Cj).
      assert (Fo : file_of (wfs w1) (cname c) = Some (inode (wfs w1) j)) by (unfold file_of; rewrite Lj; reflexivity).
      assert (D1 : match file_of (wfs w1) (cname c) with Some fl => fdir fl = false | None => True end) by (rewrite Fo; exact Dj).
      destruct (p_open_quiet w1 (cname c) true Q1 D1) as [w2 [Eop [F2 S2]]]. rewrite Eop.
      assert (Eopen : open_append (wfs w1) (cname c) (wnow w1) = (wfs w1, j)) by (unfold open_append; rewrite Lj; reflexivity).
      rewrite Eopen in *. cbn [fst snd] in *.
      exists w2, j, (inode (wfs w1) j). split; [reflexivity|]. split; [exact S2|]. rewrite F2.
      split; [exact K1|]. split; [exact Lj|]. split; [exact Fo | exact Cj].
    - assert (Lc : lookup (wfs w1) (cname c) = None) by (apply file_of_none; exact (xd_cur _ _ _ _ _ _ _ (ks_x _ _ _ _ _ _ _ _ K1))).
      assert (D1 : match file_of (wfs w1) (cname c) with Some fl => fdir fl = false | None => True end).
      { unfold file_of. rewrite Lc. exact I. }
      destruct (p_open_quiet w1 (cname c) (c_append c) Q1 D1) as [w2 [Eop [F2 S2]]]. rewrite Eop.
      assert (Eopen : (if c_append c then open_append (wfs w1) (cname c) (wnow w1) else open_trunc (wfs w1) (cname c) 0%N (wnow w1))
                      = create_file (wfs w1) (cname c) 0%N (wnow w1)).
      { destruct (c_append c); [apply open_append_fresh | apply open_trunc_fresh]; exact Lc. }
      rewrite Eopen in *. clear Eopen.
      destruct (kst_create_cur _ _ _ _ _ _ (wnow w1) K1) as (K2 & L2 & F2').
      exists w2, (length (inodes (wfs w1))), (fresh_file (wnow w1)). split; [reflexivity|]. split; [exact S2|]. rewrite F2.
      split; [exact K2|]. split; [exact L2|]. split; [exact F2' | reflexivity]. }
  destruct O2 as (w2 & ino & fl & Eo & S2 & K2 & L2 & Ff2 & Dfl).
  set (wr := {| wino := ino; wpend := []; wcap := c_cap c |}) in *.
  pose proof (proj1 S2) as Q2.
  (* the rotation state *)
  assert (RN : exists roll, roll_new w2 crit (c_append c) (cname c) = (Ok roll, w2) /\ roll_size_ok roll (length (ocb oc1))
               /\ (forall m0, crit = CSize m0 -> exists z, roll = RSize m0 z)).
  { destruct (c_append c) eqn:Happ.
    - destruct (roll_new_append w2 crit (cname c) fl Q2 Ff2) as [roll [E [Z RS]]]. rewrite Dfl in Z. eauto.
    - assert (oc1 = None) by (destruct oc1; [exfalso; assert (false = true) by (apply Happ1; discriminate); discriminate | reflexivity]).
      subst oc1. apply roll_new_fresh. }
  destruct RN as (roll & Ern & Z & RS).
  (* the cleanup repairs the directory *)
  destruct (cleanup_xdir c crit k n m w2 cl1 (Some (ocb oc1)) lo mid red Hcfg Hsfx Hk Q2 K2) as (w4 & Ec & S4 & K4).
  assert (Emax : Nat.max lo (length cl1 - (n + m)) = k_lo k (length cl1) /\ Nat.max mid (length cl1 - n) = k_mid k (length cl1)).
  { destruct U1 as [U1a U1b]. unfold k_lo, k_mid in *. rewrite Hk in *. lia. }
  destruct Emax as [-> ->] in K4.
  destruct (kst_numkinv c w4 (wfs w2) (wfs w4) wr cl1 _ _ (ocb oc1) (proj1 S4) K4 L2) as [I4 V4].
  { unfold wr_ok, wr. cbn. destruct (c_cap c); [lia | reflexivity]. } { reflexivity. } { reflexivity. }
  assert (I4' : NumKInv c w4 wr cl1 (k_lo k (length cl1)) (k_mid k (length cl1)))
    by (apply (numkinv_env c (set_fs w4 (wfs w4))); [exact I4 | reflexivity | exact (proj1 S4)]).
  assert (V4' : cur_view w4 wr = ocb oc1) by exact V4.
  assert (Ecl : forall d, match k with KNever => (Ok tt, w2) | _ => cleanup_impl c w2 k (ns_filter (NSNumR (N.of_nat (length cl1)))) (if naming_writes_direct NNumbers then Some d else None) end
                = cleanup_impl c w2 k IFNum None) by (intros d; destruct k; reflexivity).
  assert (Ebg : match k with KNever => false | _ => c_bg c end = false) by (destruct k; auto).
  unfold initialize. rewrite Hrot, En. cbn [bind]. rewrite Eo. cbn [bind]. rewrite Ern. cbn [bind]. rewrite Ecl, Ec. cbn [bind]. rewrite Ebg.
  assert (E1 : fst (init_view_k closed ocur) = cl1) by (rewrite <- Ev; reflexivity).
  assert (E2 : snd (init_view_k closed ocur) = ocb oc1) by (rewrite <- Ev; reflexivity).
  rewrite E1, E2. exists w4, wr, roll. split; [reflexivity|]. split; [exact I4'|]. split; [exact V4'|]. split; [exact Z|].
  split; [|exact RS]. eapply same_env_trans; [exact S1|]. eapply same_env_trans; eassumption.
Qed.

(* ------------------------------------------------------------------ a writer that has not written yet *)
(* the directory, with the closed files numbered as the next writer will number them *)
Definition Based (f : fs) (cl : list bytes) (oc : option bytes) : Prop :=
  exists lo mid red, kst c f f cl oc lo mid red /\ uncl k (length cl) lo mid /\ (lo < length cl \/ length cl = 0).

(* when no closed file is left (possible with both limits 0 only), the numbering starts again *)
Lemma xd_rebase f cl oc : XD c k f cl oc ->
  exists pre cl', Based f cl' oc /\ concat cl = pre ++ concat cl' /\ (pre = [] \/ n + m = 0) /\ length cl' <= length cl.
Proof.
  intros (lo & mid & red & W & Nd & X & U). pose proof (xd_le _ _ _ _ _ _ _ X) as Hle.
  destruct (Nat.lt_ge_cases lo (length cl)) as [Hlt|Hge].
  - exists [], cl. split; [|split; [reflexivity | split; [left; reflexivity | lia]]].
    exists lo, mid, red. split; [|split; [exact U | left; exact Hlt]]. constructor; auto. apply same_at_refl.
  - assert (lo = length cl) by lia. assert (mid = length cl) by lia. subst lo mid.
    assert (red = None).
    { destruct red as [b|]; [|reflexivity]. destruct (xd_red _ _ _ _ _ _ _ X) as [Hm _]. lia. }
    subst red. exists (concat cl), []. split; [|split; [cbn [concat]; rewrite app_nil_r; reflexivity | split; [|cbn; lia]]].
    + exists 0, 0, None. split; [|split; [split; lia | right; reflexivity]].
      constructor; [exact W | exact Nd | apply (xdir_rebase c _ cl oc X) | apply same_at_refl].
    + destruct U as [U _]. unfold k_lo in U. rewrite Hk in U. destruct cl as [|x cl]; [left; reflexivity|]. right. cbn [length] in U. lia.
Qed.

Definition PreK (x : sys) (v : oview) : Prop :=
  s_tl x = [] /\ wacts (s_w x) = 0 /\ s_flw x = Some (new_flw c) /\ quiet (s_w x) /\ Based (wfs (s_w x)) (fst v) (snd v).

Lemma first_write_k x v b :
  PreK x v -> (N.of_nat (length (fst v)) <= u32_max)%N ->
  exists w' s' rot,
    write_buffer (new_flw c) (s_w x) b = (Ok tt, w', s', rot)
    /\ RelK c crit k {| s_flw := Some s'; s_w := w'; s_tl := []; s_dead := s_dead x |}
           (a_step (Some (init_view_o c v)) (OWrite b) rot).
Proof.
  intros (Ht & Ha & Es & Q & (lo & mid & red & K & U & Hlo)) HL. destruct v as [cl oc]. cbn [fst snd] in *.
  destruct (initialize_xdir (s_w x) cl oc lo mid red Q K U Hlo HL) as (w1 & wr & roll & Ei & I & V & Z & S1 & RS).
  unfold init_view_k in *. destruct (init_view_o c (cl, oc)) as [cl1 cu1] eqn:Ev. cbn [fst snd] in *.
  assert (Hl1 : length cl1 <= S (length cl)).
  { unfold init_view_o in Ev. cbn [fst snd] in Ev. destruct oc as [cu|]; [destruct (c_append c)|]; injection Ev as <- _;
      rewrite ?app_length; cbn [length]; lia. }
  assert (Z0 : roll_size_ok roll (length (cur_view w1 wr))) by (rewrite V; exact Z).
  assert (Hs : rotation_necessary w1 roll = true -> kside c k (S (length cl1))).
  { intros _. unfold kside. rewrite Hk. exact Hsfx. }
  destruct (NumCleanupRun.write_active_k c crit k w1 wr cl1 roll b Hcfg I Z0 Hs) as [w' [wr' [roll' [closed' [E [I' [Z' [S' [V' [R' _]]]]]]]]]].
  exists w', (st_ofk c k (length closed') roll' wr'), (rotation_necessary w1 roll).
  split. { rewrite (write_buffer_init c (s_w x) b _ _ _ w1 Ei). exact E. }
  split; [reflexivity|]. split; [cbn [s_w]; exact (same_env_acts _ _ (same_env_trans _ _ _ S1 S') Ha)|].
  cbn [a_step]. rewrite V in V'.
  destruct (rotation_necessary w1 roll); injection V' as <- V''; (exists wr', roll'; cbn [s_flw s_w];
    split; [reflexivity|]; split; [exact I'|]; split; [exact V''|]; split; [rewrite <- V''; exact Z'|];
    intros m0 Hm; destruct (RS m0 Hm) as [z ->]; destruct (R' m0 z eq_refl) as [z' ->]; eauto).
Qed.

(* ------------------------------------------------------------------ one run on the directory of a killed writer *)
Definition GRelK (x : sys) (v : oview) (a : aview) : Prop :=
  match a with None => PreK x v | Some _ => RelK c crit k x a end.

(* a bound for the number of closed files *)
Definition gp (v : oview) (a : aview) : nat := match a with None => S (length (fst v)) | Some (cl, _) => length cl end.

Lemma gp_step v a o rot : gp v (g_step_o c v a o rot) <= S (gp v a).
Proof.
  destruct a as [[cl cu]|].
  - cbn [g_step_o gp]. pose proof (a_step_apot (Some (cl, cu)) o rot) as H. cbn [apot] in H.
    destruct (a_step (Some (cl, cu)) o rot) as [[cl' cu']|] eqn:E; cbn [gp apot] in *; [lia|].
    destruct (a_step_some (cl, cu) o rot) as [q Eq]. congruence.
  - assert (Hi : length (fst (init_view_o c v)) <= S (length (fst v))).
    { unfold init_view_o. destruct (snd v) as [cu|]; [destruct (c_append c)|]; cbn [fst]; rewrite ?app_length; cbn [length]; lia. }
    destruct o; cbn [g_step_o gp]; try lia; destruct (init_view_o c v) as [cl1 cu1]; cbn [fst a_step] in *;
      destruct rot; cbn [gp]; rewrite ?app_length; cbn [length]; lia.
Qed.

Lemma step_sync_prek x v o : PreK x v -> step x o = sync_step x o.
Proof.
  intros (_ & _ & Es & _). destruct Hcfg as (_ & Hts & _ & Ha & _). apply (step_sync_cfg x o (new_flw c) Es); assumption.
Qed.

Lemma gstep_rel_k x v a o :
  GRelK x v a -> basic_op o -> (N.of_nat (length (fst v)) <= u32_max)%N ->
  let '(x', ob) := step x o in GRelK x' v (g_step_o c v a o (rot_of ob)) /\ obs_ok ob.
Proof.
  intros G Ho HL. destruct a as [p|].
  - cbn [GRelK g_step_o] in *. pose proof (step_rel_k c crit k x (Some p) o Hcfg G Ho) as S.
    pose proof (step_rel_k_ok c crit k x (Some p) o Hcfg G Ho) as Kk.
    destruct (step x o) as [x' ob]. cbn [snd] in Kk.
    assert (Hs : kside c k (nclosed (a_step (Some p) o (rot_of ob)))).
    { unfold kside. rewrite Hk. exact Hsfx. }
    destruct (S Hs) as [R1 _]. split; [|exact (Kk Hs)].
    destruct (a_step_some p o (rot_of ob)) as [q Eq]. rewrite Eq in *. exact R1.
  - cbn [GRelK] in G. rewrite (step_sync_prek x v o G).
    pose proof G as (Ht & Ha & Es & Q & B).
    destruct o; try contradiction; cbn [sync_step].
    + (* OWrite *)
      destruct (first_write_k x v (s_tl x ++ b) G HL) as [w' [s' [rot [E R']]]].
      rewrite Es. cbn [new_flw f_poisoned]. fold (new_flw c). rewrite E. cbn [rot_of g_step_o].
      split; [|reflexivity].
      rewrite Ht in R'. cbn [app] in R'.
      destruct (a_step_some (init_view_o c v) (OWrite b) rot) as [q Eq]. rewrite Eq in *. exact R'.
    + (* OPlain *)
      destruct (first_write_k x v b G HL) as [w' [s' [rot [E R']]]].
      rewrite Es. cbn [new_flw f_poisoned]. fold (new_flw c). rewrite E. cbn [rot_of g_step_o code_of]. rewrite Ht.
      split; [|reflexivity].
      change (a_step (Some (init_view_o c v)) (OPlain b) rot) with (a_step (Some (init_view_o c v)) (OWrite b) rot).
      destruct (a_step_some (init_view_o c v) (OWrite b) rot) as [q Eq]. rewrite Eq in *. exact R'.
    + (* OFlush *)
      rewrite Es. cbn [new_flw f_poisoned flush_state f_inner rot_of g_step_o GRelK].
      split; [|reflexivity]. split; [exact Ht|]. split; [exact Ha|]. split; [reflexivity|]. split; [exact Q | exact B].
    + (* OTrigger *)
      rewrite Es. cbn [new_flw f_poisoned f_cfg f_inner mount_next with_inner rot_of g_step_o code_of GRelK].
      split; [|reflexivity]. split; [exact Ht|]. split; [exact Ha|]. split; [reflexivity|]. split; [exact Q | exact B].
    + (* OTick *)
      cbn [rot_of g_step_o GRelK]. split; [|reflexivity]. split; [exact Ht|]. split; [exact Ha|]. split; [exact Es|].
      split; [apply quiet_set_now; exact Q | exact B].
    + (* OSnap *)
      cbn [rot_of g_step_o GRelK]. split; [exact G | exact Logic.I].
Qed.

Lemma grun_rel_k v : forall ops x a, GRelK x v a -> Forall basic_op ops -> (N.of_nat (length (fst v)) <= u32_max)%N ->
  GRelK (fst (run x ops)) v (g_run_o c v a ops (snd (run x ops))) /\ Forall obs_ok (snd (run x ops)).
Proof.
  induction ops as [|o r IH]; intros x a G Hbo HL; [split; [exact G | constructor]|].
  cbn [run]. inversion Hbo as [|o' r' Ho Hr]; subst.
  pose proof (gstep_rel_k x v a o G Ho HL) as S. destruct (step x o) as [x1 ob]. destruct S as [S Kk].
  pose proof (gp_step v a o (rot_of ob)) as Hg.
  specialize (IH x1 _ S Hr HL). destruct (run x1 r) as [x2 obs]. cbn [fst snd g_run_o] in *.
  split; [apply IH | constructor; [exact Kk | apply IH]].
Qed.

Lemma start_prek x cl oc : IdleK c k x cl oc ->
  exists pre cl', PreK (fst (step x (OStart c))) (cl', oc) /\ obs_ok (snd (step x (OStart c)))
    /\ concat cl = pre ++ concat cl' /\ (pre = [] \/ n + m = 0) /\ length cl' <= length cl.
Proof.
  intros (Ht & Ha & Es & Q & X). destruct (xd_rebase _ cl oc X) as (pre & cl' & B & Ec & Hp & Hl).
  exists pre, cl'. unfold step, apply_start. rewrite Es. unfold step_core. rewrite Es. cbn [sync_step fst snd].
  split; [|split; [reflexivity | auto]].
  split; [exact Ht|]. split; [exact Ha|]. split; [reflexivity|]. split; [exact Q | exact B].
Qed.

(* the directory after the run: either untouched (nothing was written: the leftovers are still there), or repaired *)
Lemma stop_k x v a : GRelK x v a ->
  obs_ok (snd (step x OStop))
  /\ match a with
     | None => Based (wfs (s_w (fst (step x OStop)))) (fst v) (snd v)
     | Some (cl, cu) => kreader_view c (wfs (s_w (fst (step x OStop)))) cl cu (k_lo k (length cl)) (k_mid k (length cl))
     end.
Proof.
  intros G. destruct a as [[closed cur]|]; cbn [GRelK] in *.
  - pose proof (stop_rel_k c crit k x _ Hcfg G) as S. pose proof (stop_ok_k c crit k x _ Hcfg G) as Kk.
    destruct (step x OStop) as [x' ob]. cbn [fst snd] in *. subst ob. split; [reflexivity | exact S].
  - rewrite (step_sync_prek x v OStop G). destruct G as (Ht & Ha & Es & Q & B). cbn [sync_step].
    rewrite Es. cbn [new_flw f_poisoned drop_state shutdown_state f_inner fst snd s_w]. split; [reflexivity | exact B].
Qed.


(* a record was written in the run *)
Definition is_wr (o : op) : bool := match o with OWrite _ | OPlain _ => true | _ => false end.

Lemma g_run_o_some v : forall ops p obs, exists q, g_run_o c v (Some p) ops obs = Some q.
Proof.
  induction ops as [|o r IH]; intros p obs; [cbn; eauto|]. destruct obs as [|ob robs]; [cbn; eauto|].
  cbn [g_run_o g_step_o]. destruct (a_step_some p o (rot_of ob)) as [q ->]. apply IH.
Qed.

Lemma g_run_o_written v : forall ops obs, length obs = length ops -> existsb is_wr ops = true ->
  exists q, g_run_o c v None ops obs = Some q.
Proof.
  induction ops as [|o r IH]; intros obs Hl Hw; [discriminate|]. destruct obs as [|ob robs]; [discriminate|].
  cbn [g_run_o]. cbn [existsb] in Hw. destruct (is_wr o) eqn:Eo.
  - assert (E : exists q, g_step_o c v None o (rot_of ob) = Some q).
    { destruct o; try discriminate; cbn [g_step_o]; apply a_step_some. }
    destruct E as [q ->]. apply g_run_o_some.
  - assert (E : g_step_o c v None o (rot_of ob) = None) by (destruct o; try discriminate; reflexivity).
    rewrite E. apply IH; [cbn in Hl; lia | exact Hw].
Qed.

(* ---- one whole run on the directory of a killed writer ---- *)
Lemma one_run_k x cl oc ops :
  IdleK c k x cl oc -> Forall basic_op ops -> (N.of_nat (length cl) <= u32_max)%N ->
  Forall obs_ok (snd (run x (OStart c :: ops ++ [OStop])))
  /\ exists pre closed ocur lo,
       kill_view c (wfs (s_w (fst (run x (OStart c :: ops ++ [OStop]))))) closed ocur lo
       /\ (concat cl ++ ocb oc) ++ written ops = pre ++ concat closed ++ ocb ocur
       /\ lo <= length closed - (n + m)
       /\ (pre = [] \/ n + m = 0)
       /\ (existsb is_wr ops = true ->
             exists cu, ocur = Some cu /\ lo = length closed - (n + m)
               /\ kreader_view c (wfs (s_w (fst (run x (OStart c :: ops ++ [OStop]))))) closed cu lo (length closed - n)).
Proof.
  intros Id Hops HL. cbn [run]. destruct (start_prek x cl oc Id) as (pre & cl' & P0 & K0 & Ec & Hp & Hl).
  destruct (step x (OStart c)) as [x0 ob0]. cbn [fst snd] in P0, K0.
  rewrite run_app. set (v := (cl', oc)) in *.
  destruct (grun_rel_k v ops x0 None P0 Hops ltac:(cbn [fst v]; lia)) as [G1 K1]. pose proof (run_length ops x0) as Len.
  destruct (run x0 ops) as [x1 obs1]. cbn [fst snd] in *.
  destruct (stop_k x1 v _ G1) as [K2 S]. cbn [run]. destruct (step x1 OStop) as [x2 ob2]. cbn [fst snd] in *.
  split; [constructor; [exact K0|]; apply Forall_app; split; [exact K1 | constructor; [exact K2 | constructor]]|].
  pose proof (g_run_o_flat c v ops None obs1 Hops Len) as F.
  assert (Eo : oflat v = concat cl' ++ ocb oc) by reflexivity.
  pose proof (g_run_o_written v ops obs1 Len) as Wr.
  destruct (g_run_o c v None ops obs1) as [[cl2 cu2]|].
  - (* something was written: the directory has been repaired *)
    destruct S as [KD Hc]. cbn [gflat_o flat] in F. rewrite Eo in F.
    exists pre, cl2, (Some cu2), (k_lo k (length cl2)). split.
    { apply (xdir_kill_view c _ cl2 (Some cu2) _ (k_mid k (length cl2)) None). apply kdir_xdir; assumption. }
    split. { cbn [ocb]. rewrite F, Ec, <- !app_assoc. reflexivity. }
    unfold k_lo, k_mid in *. rewrite Hk in *. split; [lia|]. split; [exact Hp|].
    intros _. exists cu2. split; [reflexivity|]. split; [reflexivity|]. split; assumption.
  - (* nothing was written: the directory is as it was *)
    destruct S as (lo & mid & red & Kk & U & _). cbn [fst snd v] in Kk, U. cbn [gflat_o] in F. rewrite Eo in F.
    exists pre, cl', oc, lo. split; [exact (xdir_kill_view c _ cl' oc lo mid red (ks_x _ _ _ _ _ _ _ _ Kk))|].
    split. { rewrite F, Ec, <- !app_assoc. reflexivity. }
    split. { destruct U as [U _]. unfold k_lo in U. rewrite Hk in U. exact U. }
    split; [exact Hp|]. intros Hw. destruct (Wr Hw) as [q Eq]. discriminate Eq.
Qed.

End Restart.

(* The killed writer's directory (any history, ANY kill point) and then a new writer with the same configuration:
   - every operation of the new writer succeeds (no error, no panic) - whatever leftovers there are: no rCURRENT, an
     unfinished archive next to its original, a complete archive whose original was not removed yet, more files than the limits allow;
   - the final directory, read as the reader does, holds a tail of  acknowledged records ++ the new writer's records, at least
     as long as the limits allow (pre is what is missing at the old end; with n + m > 0 the bookkeeping is exact: pre = [] and
     concat closed ++ rCURRENT is the whole stream);
   - once the new writer has written a record, the leftovers are gone: the directory has exactly the shape that a run without
     kill leaves (kreader_view: plain files for the newest n closed files, complete archives for the next m, rCURRENT). The repair
     happens in the initialisation, which the code performs with the first write: the archive next to an original is removed
     (redundant_gz), the original is compressed again by the cleanup if it is beyond the limit for plain files.
   Side conditions: the suffix does not end with .gz; the number of the files closed by the killed writer (at most
   1 + the number of its operations) fits into u32 - the new writer reads the highest index from the directory and parses
   it as u32 (get_highest_index), as in the restart theorems without cleanup (NumRestart.v, NumKillRestart.v).  The order
   of the listing needs no bound (the sort key compares the numbers). *)
Theorem numbers_cleanup_kill_restart c crit k n m t0 off ops1 kp ops2 ops3 :
  numkcfg c crit k -> klim k = Some (n, m) -> c_cap c = None -> sfx_ok (c_spec c) ->
  Forall basic_op ops1 -> Forall basic_op ops2 -> Forall basic_op ops3 ->
  (N.of_nat (S (length ops1 + length ops2)) <= u32_max)%N ->
  let x1 := fst (run (sys0 t0 off) (OStart c :: ops1 ++ [OSetKill kp])) in
  let xk := fst (run (sys0 t0 off) (OStart c :: ops1 ++ [OSetKill kp] ++ ops2 ++ [OCrash])) in
  let r2 := run xk (OStart c :: ops3 ++ [OStop]) in
  Forall obs_ok (snd r2)
  /\ exists pre closed ocur lo,
       kill_view c (wfs (s_w (fst r2))) closed ocur lo
       /\ written ops1 ++ acked x1 ops2 ++ written ops3 = pre ++ concat closed ++ ocb ocur
       /\ written ops1 ++ acked x1 ops2 ++ written ops3 = (pre ++ concat (firstn lo closed)) ++ kv_stream closed ocur lo
       /\ lo <= length closed - (n + m)
       /\ (pre = [] \/ n + m = 0)
       /\ (existsb is_wr ops3 = true ->
             exists cu, ocur = Some cu /\ lo = length closed - (n + m)
               /\ kreader_view c (wfs (s_w (fst r2))) closed cu lo (length closed - n)).
Proof.
  intros Hcfg Hk Hcap Hsfx Hb1 Hb2 Hb3 HL x1 xk r2.
  destruct (kill_history_k c crit k n m Hcfg Hk Hcap Hsfx t0 off ops1 kp ops2 Hb1 Hb2) as (cl & oc & Id & F & Len).
  fold xk in Id. fold x1 in F.
  destruct (one_run_k c crit k n m Hcfg Hk Hsfx xk cl oc ops3 Id Hb3 ltac:(lia)) as [Kk (pre & closed & ocur & lo & V & E & Hlo & Hp & Hr)].
  split; [exact Kk|]. exists pre, closed, ocur, lo. rewrite F in E.
  assert (E' : written ops1 ++ acked x1 ops2 ++ written ops3 = pre ++ concat closed ++ ocb ocur) by (rewrite <- E, <- app_assoc; reflexivity).
  split; [exact V|]. split; [exact E'|]. split; [|auto].
  rewrite E'. rewrite <- app_assoc. f_equal. apply kv_stream_tail.
Qed.
Print Assumptions numbers_cleanup_kill_restart.
