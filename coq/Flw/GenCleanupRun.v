(* What the time-stamp namings with a cleanup strategy share on the level of the writer and of the run: the normal form
   of the initialisation once the naming step has chosen an infix whose name is free, and every history of basic
   operations over an abstract invariant of (world, writer, index, closed files), to which a naming contributes
   run_facts. *)
Require Import FL.Base.Bytes FL.Fs.Fs FL.Names.FileSpec FL.Flw.Model FL.Flw.ModelFacts FL.Flw.NumFs FL.Flw.NumInv
  FL.Flw.Run FL.Flw.QuietFacts FL.Flw.NumRun FL.Flw.NumKillRestart FL.Flw.NumCleanupRun FL.Flw.NumCleanup FL.Flw.TsInv FL.Flw.TsRun.
From Coq Require Import Lia.
Open Scope nat_scope.

Lemma roll_reset_size_ok roll t : roll_size_ok (roll_reset roll t) 0.
Proof. destruct roll; cbn; auto. Qed.
Lemma roll_init_rsize crit t m : crit = CSize m -> roll_init crit t = RSize m 0.
Proof. intros ->. reflexivity. Qed.

Lemma reset_fresh w roll p j t :
  lookup (wfs w) p = Some j -> inode (wfs w) j = fresh_file t -> reset_size_and_date w roll p = roll_reset roll t.
Proof. intros L I. rewrite (reset_size_and_date_born w roll p _ (file_of_lookup _ _ _ L)), I. reflexivity. Qed.

Lemma cur_view_fresh w j cap t : inode (wfs w) j = fresh_file t -> cur_view w {| wino := j; wpend := []; wcap := cap |} = [].
Proof. intros I. unfold cur_view. cbn [wino wpend]. rewrite (content_inode _ _ _ I). reflexivity. Qed.

Lemma init_cleanup_eq c w k flt cur :
  match k with KNever => (Ok tt, w) | _ => cleanup_impl c w k flt cur end = cleanup_impl c w k flt cur.
Proof. destruct k; reflexivity. Qed.
Lemma init_bg_eq c k : c_bg c = false -> match k with KNever => false | _ => c_bg c end = false.
Proof. intros H. destruct k; auto. Qed.

Lemma initialize_open c w crit nam k ns infix w1 :
  c_rot c = Some (crit, nam, k) -> init_naming c w nam = (Ok (ns, infix), w1) ->
  quiet w1 -> c_symlink c = false -> c_bg c = false ->
  lookup (wfs w1) (name_of c w1 (Some infix)) = None ->
  let p := name_of c w1 (Some infix) in
  let w2 := set_fs w1 (fst (create_file (wfs w1) p 0%N (wnow w1))) in
  initialize c w =
    bind (cleanup_impl c w2 k (ns_filter ns) (if naming_writes_direct nam then Some p else None)) (fun _ w4 =>
      (Ok (Active (Some (mk_rsk k ns (roll_init crit (wnow w1)))) {| wino := length (inodes (wfs w1)); wpend := []; wcap := c_cap c |} p),
       w4)).
Proof.
  intros Hrot Hns Q Hlink Hbg Hfree p w2. unfold initialize. rewrite Hrot, Hns. cbn [bind].
  rewrite (open_log_file_fresh c w1 (Some infix) Q Hlink Hfree). fold p w2. cbn [bind].
  assert (Fo : file_of (wfs w2) p = Some (fresh_file (wnow w1))).
  { pose proof (create_file_spec (wfs w1) p 0%N (wnow w1)) as S. unfold w2. cbn [wfs set_fs].
    destruct (create_file (wfs w1) p 0%N (wnow w1)) as [f' i]. destruct S as (-> & Hi & Li & _). cbn [fst].
    rewrite (file_of_lookup _ _ _ Li). unfold inode. rewrite Hi, inode_app_new. reflexivity. }
  rewrite (roll_new_quiet w2 crit (c_append c) p _ (quiet_set_fs w1 _ Q) Fo). cbn [bind].
  rewrite init_cleanup_eq, (init_bg_eq c k Hbg).
  rewrite roll_of_fresh. reflexivity.
Qed.

Section RunSkeleton.
Variables (c : config) (crit : criterion) (k : cleanup) (e lo0 hi : Z).
(* X: what the proof tracks beside the closed files (keys, the time stamp of rCURRENT);
   x1 t: its value after the first write at time t, nxt t s: after a rotation at time t *)
Variable X : Type.
Variable Inv : world -> writer -> X -> list bytes -> Prop.
Variables (nam : X -> list bytes -> naming_state) (fnm : X -> list bytes -> bytes).
Variables (x1 : Z -> X) (nxt : Z -> X -> X).

Definition st_ix (s : X) (cl : list bytes) (roll : roll_state) (wr : writer) : flw :=
  {| f_cfg := c; f_inner := Active (Some (mk_rsk k (nam s cl) roll)) wr (fnm s cl); f_poisoned := false |}.

Definition idle_dir (w : world) : Prop :=
  quiet w /\ names (wfs w) = [] /\ inodes (wfs w) = [] /\ eoff c w = e /\ (lo0 <= wnow w)%Z.

(* what a naming contributes: the configuration is synchronous and has no start-time part; the invariant implies a quiet
   world and a well-formed writer; a rotation keeps it, an append keeps it, the first write establishes it on the empty
   directory, the clock may advance under it *)
Record run_facts : Prop := {
  rf_ts : fts (c_spec c) = false;
  rf_async : c_async c = false;
  rf_quiet : forall w wr s cl, Inv w wr s cl -> quiet w;
  rf_wr : forall w wr s cl, Inv w wr s cl -> wr_ok wr;
  rf_rotate : forall w wr s cl roll force,
    Inv w wr s cl -> (wnow w <= hi)%Z -> (N.of_nat (S (length cl)) <= usize_max)%N ->
    force || rotation_necessary w roll = true ->
    exists w' wr',
      mount_next c w (Active (Some (mk_rsk k (nam s cl) roll)) wr (fnm s cl)) force
        = (Ok tt, w', f_inner (st_ix (nxt (wnow w) s) (cl ++ [cur_view w wr]) (roll_reset roll (wnow w)) wr'))
      /\ Inv w' wr' (nxt (wnow w) s) (cl ++ [cur_view w wr]) /\ cur_view w' wr' = [] /\ same_env w w';
  rf_append : forall w w' wr wr' s cl x,
    Inv w wr s cl -> (wnow w <= hi)%Z -> wfs w' = append_ino (wfs w) (wino wr) x -> same_env w w' ->
    wino wr' = wino wr -> wcap wr' = wcap wr -> wr_ok wr' ->
    Inv w' wr' s cl /\ content (wfs w') (wino wr') = content (wfs w) (wino wr) ++ x;
  rf_init : forall w, idle_dir w -> (wnow w <= hi)%Z ->
    exists w' wr,
      initialize c w = (Ok (f_inner (st_ix (x1 (wnow w)) [] (roll_init crit (wnow w)) wr)), w')
      /\ Inv w' wr (x1 (wnow w)) [] /\ cur_view w' wr = [] /\ same_env w w';
  rf_tick : forall w wr s cl dt, Inv w wr s cl -> (0 <= dt)%Z -> Inv (set_now w (wnow w + dt)%Z) wr s cl }.

Hypothesis RF : run_facts.
Let inv_quiet := rf_quiet RF.
Let inv_wr := rf_wr RF.
Let inv_rotate := rf_rotate RF.
Let inv_append := rf_append RF.
Let inv_init := rf_init RF.
Let inv_tick := rf_tick RF.

Lemma write_active_ix w wr s cl roll b :
  Inv w wr s cl -> (wnow w <= hi)%Z -> (N.of_nat (S (length cl)) <= usize_max)%N -> roll_size_ok roll (length (cur_view w wr)) ->
  let rot := rotation_necessary w roll in
  let roll' := increase_size (if rot then roll_reset roll (wnow w) else roll) (N.of_nat (length b)) in
  exists w' wr' s' cl',
    write_buffer (st_ix s cl roll wr) w b = (Ok tt, w', st_ix s' cl' roll' wr', rot)
    /\ Inv w' wr' s' cl' /\ roll_size_ok roll' (length (cur_view w' wr')) /\ same_env w w'
    /\ (cl', cur_view w' wr') = (if rot then (cl ++ [cur_view w wr], b) else (cl, cur_view w wr ++ b)).
Proof.
  intros I Hhi Hmax Hsz rot roll'.
  unfold write_buffer, st_ix. cbn [f_cfg f_inner f_poisoned mk_rsk rs_roll]. fold rot.
  assert (M : exists w1 wr1 s1 cl1,
            mount_next c w (Active (Some (mk_rsk k (nam s cl) roll)) wr (fnm s cl)) false
            = (Ok tt, w1, f_inner (st_ix s1 cl1 (if rot then roll_reset roll (wnow w) else roll) wr1))
            /\ Inv w1 wr1 s1 cl1
            /\ roll_size_ok (if rot then roll_reset roll (wnow w) else roll) (length (cur_view w1 wr1)) /\ same_env w w1
            /\ (cl1, cur_view w1 wr1) = (if rot then (cl ++ [cur_view w wr], []) else (cl, cur_view w wr))).
  { destruct rot eqn:Er.
    - destruct (inv_rotate w wr s cl roll false I Hhi Hmax Er) as (w1 & wr1 & E & I1 & V1 & S1).
      exists w1, wr1, (nxt (wnow w) s), (cl ++ [cur_view w wr]). rewrite V1.
      split; [exact E|]. split; [exact I1|]. split; [apply roll_reset_size_ok|]. split; [exact S1 | reflexivity].
    - exists w, wr, s, cl. split.
      + unfold mount_next. cbn [mk_rsk rs_roll orb]. unfold rot in Er. rewrite Er. reflexivity.
      + split; [exact I|]. split; [exact Hsz|]. split; [apply same_env_refl; exact (inv_quiet _ _ _ _ I) | reflexivity]. }
  destruct M as (w1 & wr1 & s1 & cl1 & E & I1 & Z1 & S1 & V1).
  rewrite E. cbn [st_ix f_inner].
  destruct (w_write_quiet w1 wr1 b (inv_quiet _ _ _ _ I1) (inv_wr _ _ _ _ I1)) as [w2 [wr2 [fl [Ew [S2 [F2 [Ei [Ec [Ep Hok]]]]]]]]].
  rewrite Ew.
  assert (Hhi1 : (wnow w1 <= hi)%Z) by (rewrite (same_env_now _ _ S1); exact Hhi).
  destruct (inv_append w1 w2 wr1 wr2 s1 cl1 fl I1 Hhi1 F2 S2 Ei Ec Hok) as [I2 C2].
  exists w2, wr2, s1, cl1.
  assert (V2 : cur_view w2 wr2 = cur_view w1 wr1 ++ b).
  { unfold cur_view. rewrite C2, <- !app_assoc, Ep. reflexivity. }
  split; [reflexivity|]. split; [exact I2|].
  split. { rewrite V2, app_length. apply roll_size_increase. exact Z1. }
  split; [eapply same_env_trans; eassumption|].
  rewrite V2. destruct rot; injection V1 as -> ->; reflexivity.
Qed.

Lemma flush_inv w wr s cl : Inv w wr s cl -> (wnow w <= hi)%Z ->
  let w' := set_fs w (append_ino (wfs w) (wino wr) (wpend wr)) in
  let wr' := {| wino := wino wr; wpend := []; wcap := wcap wr |} in
  w_flush w wr = (true, w', wr') /\ Inv w' wr' s cl /\ cur_view w' wr' = cur_view w wr /\ same_env w w'.
Proof.
  intros I Hhi w' wr'. pose proof (inv_quiet _ _ _ _ I) as Q.
  assert (S : same_env w w') by (apply same_env_set_fs; exact Q).
  destruct (inv_append w w' wr wr' s cl (wpend wr) I Hhi eq_refl S eq_refl eq_refl (wr_ok_nil _ _)) as [I1 C1].
  split; [apply w_flush_quiet_eq; exact Q|]. split; [exact I1|]. split; [|exact S].
  unfold cur_view. rewrite C1. cbn [wr' wpend]. rewrite app_nil_r. reflexivity.
Qed.

Lemma flush_active_ix w wr s cl roll : Inv w wr s cl -> (wnow w <= hi)%Z ->
  exists w' wr', flush_state (st_ix s cl roll wr) w = (true, w', st_ix s cl roll wr')
    /\ Inv w' wr' s cl /\ cur_view w' wr' = cur_view w wr /\ wpend wr' = [] /\ same_env w w'.
Proof.
  intros I Hhi. destruct (flush_inv w wr s cl I Hhi) as (E & I1 & V1 & S1).
  unfold flush_state, st_ix. cbn [f_inner]. rewrite E. eexists _, _.
  split; [reflexivity|]. split; [exact I1|]. split; [exact V1|]. split; [reflexivity | exact S1].
Qed.

(* n bounds the number of closed files (it grows by at most one with every operation) *)
Definition rel_ix (n : nat) (x : sys) (a : aview) : Prop :=
  s_tl x = [] /\ wacts (s_w x) = 0 /\
  match a with
  | None => s_flw x = Some (new_flw c) /\ idle_dir (s_w x)
  | Some (closed, cur) =>
    exists s wr roll, s_flw x = Some (st_ix s closed roll wr)
      /\ Inv (s_w x) wr s closed
      /\ cur_view (s_w x) wr = cur /\ length closed <= n
      /\ roll_size_ok roll (length cur) /\ (forall m, crit = CSize m -> exists z, roll = RSize m z)
  end.

Lemma write_rel_ix n x a b :
  rel_ix n x a -> (wnow (s_w x) <= hi)%Z -> (N.of_nat (S n) <= usize_max)%N ->
  exists s w' s' rot, s_flw x = Some s /\ f_poisoned s = false /\
    write_buffer s (s_w x) b = (Ok tt, w', s', rot)
    /\ rel_ix (S n) {| s_flw := Some s'; s_w := w'; s_tl := []; s_dead := s_dead x |} (a_step a (OWrite b) rot)
    /\ wnow w' = wnow (s_w x)
    /\ (forall m, crit = CSize m -> rot = (m <? N.of_nat (length (cur_of a)))%N)
    /\ (rot = flag_of crit (s_w x) (roll_of_sys x) (OWrite b)
        /\ roll_of_flw s' = ro_step crit (wnow (s_w x)) (roll_of_sys x) (OWrite b) rot
        /\ woff w' = woff (s_w x)).
Proof.
  intros [Ht [Ha R]] Hhi Hmax. destruct a as [[closed cur]|].
  - destruct R as (s & wr & roll & Es & I & V & Hn & Z & RS).
    rewrite <- V in Z.
    destruct (write_active_ix (s_w x) wr s closed roll b I Hhi ltac:(lia) Z) as (w' & wr' & s' & closed' & E & I' & Z' & S' & V').
    eexists _, w', _, (rotation_necessary (s_w x) roll).
    split; [exact Es|]. split; [reflexivity|]. split; [exact E|].
    split; [|split; [exact (same_env_now _ _ S')|split]].
    + split; [reflexivity|]. split; [cbn [s_w]; exact (same_env_acts _ _ S' Ha)|].
      cbn [a_step]. rewrite V in V'.
      destruct (rotation_necessary (s_w x) roll); injection V' as -> V''; (eexists s', wr', _; cbn [s_flw s_w];
        split; [reflexivity|]; split; [exact I'|]; split; [exact V''|]; split; [rewrite ?app_length; cbn [length]; lia|];
        split; [rewrite V'' in Z'; exact Z'|];
        intros m Hm; destruct (RS m Hm) as [z ->]; cbn; eauto).
    + intros m Hm. destruct (RS m Hm) as [z ->]. cbn in Z. subst z. cbn [cur_of]. rewrite V. reflexivity.
    + unfold roll_of_sys. rewrite Es. cbn [roll_of_flw st_ix f_inner mk_rsk rs_roll flag_of is_write ro_step].
      split; [reflexivity|]. split; [reflexivity|]. apply same_env_clock. exact S'.
  - destruct R as [Es Id].
    destruct (inv_init (s_w x) Id Hhi) as (w1 & wr & Ei & I & V & S1).
    assert (Hhi1 : (wnow w1 <= hi)%Z) by (rewrite (same_env_now _ _ S1); exact Hhi).
    assert (Z0 : roll_size_ok (roll_init crit (wnow (s_w x))) (length (cur_view w1 wr))) by (rewrite V; apply roll_init_size_ok).
    destruct (write_active_ix w1 wr (x1 (wnow (s_w x))) [] _ b I Hhi1 ltac:(cbn [length]; lia) Z0)
      as (w' & wr' & s' & closed' & E & I' & Z' & S' & V').
    destruct (same_env_clock _ _ S1) as [C1 C2]. destruct (same_env_clock _ _ S') as [C3 C4].
    assert (Er : rotation_necessary w1 (roll_init crit (wnow (s_w x))) = rotation_necessary (s_w x) (roll_init crit (wnow (s_w x))))
      by (apply rotation_necessary_env; assumption).
    rewrite C1, Er in *.
    eexists (new_flw c), w', _, (rotation_necessary (s_w x) (roll_init crit (wnow (s_w x)))).
    split; [exact Es|]. split; [reflexivity|].
    split. { rewrite (write_buffer_init c (s_w x) b _ _ _ w1 Ei). exact E. }
    split; [|split; [congruence|split]].
    + split; [reflexivity|]. split; [cbn [s_w]; exact (same_env_acts _ _ (same_env_trans _ _ _ S1 S') Ha)|].
      cbn [a_step]. rewrite V in V'. cbn [app] in V'.
      destruct (rotation_necessary (s_w x) (roll_init crit (wnow (s_w x)))); injection V' as -> V''; (eexists s', wr', _; cbn [s_flw s_w];
        split; [reflexivity|]; split; [exact I'|]; split; [exact V''|]; split; [cbn [app length]; lia|];
        split; [rewrite V'' in Z'; exact Z'|];
        intros m Hm; rewrite (roll_init_rsize _ _ _ Hm); cbn; eauto).
    + intros m Hm. rewrite (roll_init_rsize _ _ _ Hm). reflexivity.
    + unfold roll_of_sys. rewrite Es. cbn [roll_of_flw new_flw st_ix f_inner mk_rsk rs_roll flag_of is_write ro_step].
      split; [reflexivity|]. split; [reflexivity|]. congruence.
Qed.

Lemma step_sync_rel_ix n x a o : rel_ix n x a -> step x o = sync_step x o.
Proof.
  intros [_ [_ R]].
  assert (E : exists s, s_flw x = Some s /\ f_cfg s = c).
  { destruct a as [[closed cur]|]; [destruct R as (s & wr & roll & Es & _) | destruct R as [Es _]]; rewrite Es; eexists; split; reflexivity. }
  destruct E as [s [Es Ec]]. apply (step_sync_cfg x o s Es); rewrite Ec; apply RF.
Qed.

Lemma rel_ix_mono n x a : rel_ix n x a -> rel_ix (S n) x a.
Proof.
  intros [Ht [Ha R]]. split; [exact Ht|]. split; [exact Ha|]. destruct a as [[closed cur]|]; [|exact R].
  destruct R as (s & wr & roll & Es & I & V & Hn & ZR). exists s, wr, roll.
  split; [exact Es|]. split; [exact I|]. split; [exact V|]. split; [lia | exact ZR].
Qed.

Lemma step_rel_ix n x a o :
  rel_ix n x a -> basic_op o -> tick_ok o -> (wnow (s_w x) <= hi)%Z -> (N.of_nat (S n) <= usize_max)%N ->
  let '(x', ob) := step x o in
  rel_ix (S n) x' (a_step a o (rot_of ob)) /\ wnow (s_w x') = (wnow (s_w x) + dt_of o)%Z
  /\ (forall b m, (o = OWrite b \/ o = OPlain b) -> crit = CSize m -> ob = ObsRes 0 (m <? N.of_nat (length (cur_of a)))%N)
  /\ obs_ok ob
  /\ trace_ok crit x x' o ob.
Proof.
  intros R Hb Htk Hhi Hmax. rewrite (step_sync_rel_ix n x a o R). unfold trace_ok.
  destruct o; try contradiction; cbn [sync_step dt_of].
  -
    destruct (write_rel_ix n x a b R Hhi Hmax) as (s & w' & s' & rot & Es & Hp & E & R' & Hw & C & T1 & T2 & T3).
    rewrite Es, Hp. rewrite (proj1 R). cbn [app]. rewrite E. cbn [rot_of s_w]. split; [exact R'|]. split; [lia|].
    split; [intros b0 m _ Hm; rewrite (C m Hm); reflexivity|]. split; [reflexivity|].
    unfold roll_of_sys at 2. cbn [s_flw clock_step]. auto.
  -
    destruct (write_rel_ix n x a b R Hhi Hmax) as (s & w' & s' & rot & Es & Hp & E & R' & Hw & C & T1 & T2 & T3).
    rewrite Es, Hp, E. cbn [rot_of code_of s_w]. rewrite (proj1 R). split; [exact R'|]. split; [lia|].
    split; [intros b0 m _ Hm; rewrite (C m Hm); reflexivity|]. split; [reflexivity|].
    unfold roll_of_sys at 2. cbn [s_flw clock_step]. auto.
  -
    destruct R as [Ht [Ha R]]. destruct a as [[closed cur]|].
    + destruct R as (s & wr & roll & Es & I & V & Hn & ZR). unfold roll_of_sys. rewrite Es. cbn [st_ix f_poisoned].
      destruct (flush_active_ix (s_w x) wr s closed roll I Hhi) as (w' & wr' & E & I' & V' & P' & S').
      fold (st_ix s closed roll wr). rewrite E. cbn [rot_of a_step s_w].
      split; [|split; [rewrite (same_env_now _ _ S'); lia | split; [intros b m [H|H]; discriminate | split; [reflexivity|]]]].
      * split; [exact Ht|]. split; [exact (same_env_acts _ _ S' Ha)|]. exists s, wr', roll. cbn [s_flw s_w].
        split; [reflexivity|]. split; [exact I'|]. split; [congruence|]. split; [lia | exact ZR].
      * cbn [s_flw s_w]. split; [reflexivity|]. split; [reflexivity|]. apply same_env_clock. exact S'.
    + destruct R as [Es R]. unfold roll_of_sys. rewrite Es. cbn [new_flw f_poisoned flush_state f_inner rot_of a_step s_w].
      split; [|split; [lia | split; [intros b m [H|H]; discriminate | split; [reflexivity|]]]].
      * split; [exact Ht|]. split; [exact Ha|]. split; [reflexivity | exact R].
      * cbn [s_flw s_w]. repeat split.
  -
    destruct R as [Ht [Ha R]]. destruct a as [[closed cur]|].
    + destruct R as (s & wr & roll & Es & I & V & Hn & Z & RS). unfold roll_of_sys. rewrite Es. cbn [st_ix f_poisoned f_cfg f_inner].
      destruct (inv_rotate (s_w x) wr s closed roll true I Hhi ltac:(lia) eq_refl) as (w' & wr' & E & I' & V' & S').
      rewrite E. cbn [rot_of a_step code_of with_inner f_cfg f_poisoned s_w st_ix f_inner].
      split; [|split; [rewrite (same_env_now _ _ S'); lia | split; [intros b m [H|H]; discriminate | split; [reflexivity|]]]].
      * split; [exact Ht|]. split; [exact (same_env_acts _ _ S' Ha)|]. rewrite V in *.
        exists (nxt (wnow (s_w x)) s), wr', (roll_reset roll (wnow (s_w x))). cbn [s_flw s_w].
        split; [reflexivity|]. split; [exact I'|]. split; [exact V'|]. split; [rewrite app_length; cbn [length]; lia|].
        split; [apply roll_reset_size_ok|].
        intros m Hm. destruct (RS m Hm) as [z ->]. cbn. eauto.
      * cbn [s_flw s_w roll_of_flw f_inner mk_rsk rs_roll flag_of is_write ro_step clock_step].
        split; [reflexivity|]. split; [reflexivity|]. apply same_env_clock. exact S'.
    + destruct R as [Es R]. unfold roll_of_sys. rewrite Es.
      cbn [new_flw f_poisoned f_cfg f_inner mount_next with_inner rot_of a_step code_of s_w].
      split; [|split; [lia | split; [intros b m [H|H]; discriminate | split; [reflexivity|]]]].
      * split; [exact Ht|]. split; [exact Ha|]. split; [reflexivity | exact R].
      * cbn [s_flw s_w]. repeat split.
  -
    cbn [rot_of a_step s_w set_now wnow tick_ok] in *. split; [|split; [reflexivity | split; [intros b m [H|H]; discriminate | split; [reflexivity|]]]].
    + destruct R as [Ht [Ha R]]. split; [exact Ht|]. split; [exact Ha|]. destruct a as [[closed cur]|].
      * destruct R as (s & wr & roll & Es & I & V & Hn & ZR). exists s, wr, roll. cbn [s_flw s_w].
        split; [exact Es|]. split; [apply inv_tick; assumption|]. split; [exact V|]. split; [lia | exact ZR].
      * cbn [s_flw s_w]. destruct R as (Es & Q & Hn & Hi & Hoff & Hlo). repeat split; try assumption; try apply Q. cbn [set_now wnow]. lia.
    + unfold roll_of_sys. cbn [s_flw s_w set_now wnow woff]. repeat split.
  -
    cbn [rot_of a_step]. split; [apply rel_ix_mono; exact R|]. split; [lia|]. split; [intros b m [H|H]; discriminate|]. split; [exact Logic.I | repeat split].
Qed.

Lemma run_rel_ix : forall ops x a n, rel_ix n x a -> Forall basic_op ops -> Forall tick_ok ops ->
  (wnow (s_w x) + elapsed ops <= hi)%Z -> (N.of_nat (n + length ops) <= usize_max)%N ->
  rel_ix (n + length ops) (fst (run x ops)) (a_run a ops (snd (run x ops)))
  /\ wnow (s_w (fst (run x ops))) = (wnow (s_w x) + elapsed ops)%Z
  /\ Forall obs_ok (snd (run x ops))
  /\ (forall m, crit = CSize m -> a_run a ops (snd (run x ops)) = s_run m a ops).
Proof.
  induction ops as [|o r IH]; intros x a n R Hb Htk Hhi Hmax.
  - cbn [run fst snd a_run length elapsed]. rewrite Nat.add_0_r. split; [exact R|]. split; [lia|]. split; [constructor|].
    intros m _. reflexivity.
  - cbn [run]. inversion Hb as [|o' r' Ho Hr]; subst. inversion Htk as [|o' r' Hto Htr]; subst.
    cbn [elapsed length] in *. pose proof (elapsed_nonneg r Htr) as Er.
    assert (Hdt : (0 <= dt_of o)%Z) by (destruct o; cbn [dt_of tick_ok] in *; lia).
    pose proof (step_rel_ix n x a o R Ho Hto ltac:(lia) ltac:(lia)) as S. destruct (step x o) as [x' ob].
    destruct S as [R1 [W1 [C1 [K1 _]]]]. specialize (IH x' _ (S n) R1 Hr Htr ltac:(lia) ltac:(lia)). destruct (run x' r) as [x2 obs].
    cbn [fst snd a_run] in *. replace (n + S (length r)) with (S n + length r) by lia. destruct IH as [IH1 [IH2 [IH3 IH4]]].
    split; [exact IH1|]. split; [lia|]. split; [constructor; assumption|].
    intros m Hm.
    assert (Erot : a_step a o (rot_of ob) = a_step a o (m <? N.of_nat (length (cur_of a)))%N).
    { destruct o; try reflexivity.
      - rewrite (C1 b m (or_introl eq_refl) Hm). reflexivity.
      - rewrite (C1 b m (or_intror eq_refl) Hm). reflexivity. }
    cbn [s_run]. rewrite <- Erot. exact (IH4 m Hm).
Qed.

(* the writer is shut down and dropped; what is left is the file system of a state under the invariant whose writer
   holds nothing back *)
Lemma stop_rel_ix n x a : rel_ix n x a -> (wnow (s_w x) <= hi)%Z ->
  let '(x', ob) := step x OStop in
  ob = ObsRes 0%N false /\
  match a with
  | None => names (wfs (s_w x')) = []
  | Some (closed, cur) => exists w wr s, Inv w wr s closed /\ content (wfs w) (wino wr) = cur /\ wfs (s_w x') = wfs w
                                         /\ wnow w = wnow (s_w x)
  end.
Proof.
  intros R0 Hhi. rewrite (step_sync_rel_ix n x a OStop R0). destruct R0 as [Ht [Ha R]]. cbn [sync_step].
  destruct a as [[closed cur]|].
  - destruct R as (s & wr & roll & Es & I & V & _). rewrite Es. cbn [st_ix f_poisoned]. split; [reflexivity|].
    unfold st_ix. rewrite (drop_state_quiet c false (s_w x) _ wr _ (inv_quiet _ _ _ _ I)). cbn [s_w].
    destruct (flush_inv (s_w x) wr s closed I Hhi) as (_ & I1 & V1 & S1).
    exists (flushed (s_w x) wr), (emptied wr), s. split; [exact I1|]. split; [|split; [reflexivity | exact (same_env_now _ _ S1)]].
    rewrite <- V, <- V1. unfold flushed, emptied, cur_view at 1. cbn [wpend]. rewrite app_nil_r. reflexivity.
  - destruct R as [Es R]. rewrite Es. cbn [new_flw f_poisoned drop_state shutdown_state f_inner s_w]. split; [reflexivity | apply R].
Qed.

Theorem stream_ix t0 off ops :
  rel_ix 0 (fst (step (sys0 t0 off) (OStart c))) None ->
  Forall basic_op ops -> Forall tick_ok ops -> (t0 + elapsed ops <= hi)%Z -> (N.of_nat (length ops) <= usize_max)%N ->
  let x0 := fst (step (sys0 t0 off) (OStart c)) in
  let a := a_run None ops (snd (run x0 ops)) in
  let r := run (sys0 t0 off) (OStart c :: ops ++ [OStop]) in
  flat a = written ops
  /\ match a with
     | None => names (wfs (s_w (fst r))) = []
     | Some (closed, cur) => exists w wr s, Inv w wr s closed /\ content (wfs w) (wino wr) = cur /\ wfs (s_w (fst r)) = wfs w
                                            /\ wnow w = (t0 + elapsed ops)%Z
     end
  /\ Forall obs_ok (snd r)
  /\ (forall m, crit = CSize m -> a = s_run m None ops).
Proof.
  intros R0 Hb Htk Hhi Hmax x0 a r. unfold r. clear r. cbn [run]. fold x0.
  destruct (step (sys0 t0 off) (OStart c)) as [x0' ob0] eqn:E0. cbn [fst] in x0, R0. subst x0.
  assert (K0 : obs_ok ob0) by (cbn in E0; injection E0 as _ <-; reflexivity).
  assert (W0 : wnow (s_w x0') = t0) by (cbn in E0; injection E0 as <- _; reflexivity).
  rewrite run_app.
  pose proof (run_rel_ix ops x0' None 0 R0 Hb Htk ltac:(lia) ltac:(cbn [Nat.add]; exact Hmax)) as [R1 [W1 [K1 Z1]]].
  pose proof (run_length ops x0') as Len.
  fold a in R1, Z1. unfold a in *. clear a.
  destruct (run x0' ops) as [x1' obs1]. cbn [fst snd] in *.
  pose proof (stop_rel_ix _ x1' _ R1 ltac:(lia)) as S. cbn [run]. destruct (step x1' OStop) as [x2 ob2]. cbn [fst snd].
  destruct S as [-> S].
  split; [|split; [|split; [|exact Z1]]].
  - rewrite (a_run_flat ops None obs1 Hb Len). reflexivity.
  - destruct (a_run None ops obs1) as [[cl cu]|]; [|exact S].
    destruct S as (w & wr & s & I & Ec & F & N). exists w, wr, s. split; [exact I|]. split; [exact Ec|]. split; [exact F | lia].
  - constructor; [exact K0|]. apply Forall_app. split; [exact K1|]. repeat constructor.
Qed.

End RunSkeleton.

(* The rotation flags - and with them the view - are decided by the clock and the rotation state alone (trace_ok): two
   runs that start with the same clock and rotation state report the same flags, whatever their strategies and namings. *)
Lemma runs_agree_ix crit e lo0 hi c k X Inv nam fnm x1 nxt c' k' X' Inv' nam' fnm' x1' nxt' :
  run_facts c crit k e lo0 hi X Inv nam fnm x1 nxt -> run_facts c' crit k' e lo0 hi X' Inv' nam' fnm' x1' nxt' ->
  forall ops x x' a n, rel_ix c crit k e lo0 X Inv nam fnm n x a -> rel_ix c' crit k' e lo0 X' Inv' nam' fnm' n x' a ->
  wnow (s_w x') = wnow (s_w x) -> woff (s_w x') = woff (s_w x) -> roll_of_sys x' = roll_of_sys x ->
  Forall basic_op ops -> Forall tick_ok ops ->
  (wnow (s_w x) + elapsed ops <= hi)%Z -> (N.of_nat (n + length ops) <= usize_max)%N ->
  a_run a ops (snd (run x' ops)) = a_run a ops (snd (run x ops)).
Proof.
  intros RF RF'. induction ops as [|o r IH]; intros x x' a n R R' Hn Ho Hr Hb Htk Hhi Hmax; [reflexivity|].
  inversion Hb as [|o' r' Hbo Hbr]; subst. inversion Htk as [|o' r' Hto Htr]; subst. cbn [run elapsed length] in *.
  pose proof (elapsed_nonneg r Htr) as Er.
  assert (Hdt : (0 <= dt_of o)%Z) by (destruct o; cbn [dt_of tick_ok] in *; lia).
  pose proof (step_rel_ix _ _ _ _ _ _ _ _ _ _ _ _ RF n x a o R Hbo Hto ltac:(lia) ltac:(lia)) as S.
  pose proof (step_rel_ix _ _ _ _ _ _ _ _ _ _ _ _ RF' n x' a o R' Hbo Hto ltac:(lia) ltac:(lia)) as S'.
  destruct (step x o) as [y ob]. destruct (step x' o) as [y' ob'].
  specialize (IH y y'). destruct (run y r) as [x2 obs]. destruct (run y' r) as [x2' obs']. cbn [snd a_run] in *.
  destruct S as (R1 & W1 & _ & _ & (F1 & G1 & N1 & O1)). destruct S' as (R1' & W1' & _ & _ & (F1' & G1' & N1' & O1')).
  assert (Ef : rot_of ob' = rot_of ob) by (rewrite F1, F1', Hr; apply flag_of_env; assumption).
  rewrite Ef in *. apply (IH _ (S n)); auto; try congruence; lia.
Qed.
