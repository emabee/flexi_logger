(* Files that are not members of the logger's file family are ignored - NumbersDirect naming WITH a cleanup strategy
   (NumCleanupForeign.v does this for Numbers naming; NumDForeign.v for NumbersDirect without cleanup):
   the cleanup (cleanup_impl with cur = Some (the file being written)) lists, removes and compresses family files only - numd_member rejects the
   foreign names, so they are not in the listing it works on; the archive name of a listed file is a family name, too.
   A run in a directory pre-filled with foreign files is, step by step, the embedding (ForeignFs.embed) of the run in the
   empty directory: same observations, foreign files untouched (neither removed nor compressed), family files as in the
   clean run.  Unlike with Numbers naming the name of the rCURRENT file is foreign here (cleanup_foreign_instance_dir_d).
   The embedding lemmas (NumDForeign, section CfgDK) hold for every world, faults and kills included; the run level is NumForeign.v (section GenRun). *)
Require Import FL.Flw.WorldPar.
Require Import FL.Base.Bytes FL.Base.BytesFacts FL.Base.PathName FL.Fs.Fs FL.Fs.FsFacts FL.Time.Civil FL.Time.TsFormat
  FL.Names.FileSpec FL.Names.NamesFacts FL.Names.SortFacts FL.Names.FamilyFacts FL.Flw.Model FL.Flw.ModelFacts FL.Flw.NumFs
  FL.Flw.NumInv FL.Flw.Run FL.Flw.RunFacts FL.Flw.NumRun FL.Oracles.O_Flw FL.Flw.NumTheorems FL.Flw.NumListing FL.Flw.CleanupFacts
  FL.Flw.NumKillRestart FL.Flw.NumDInv FL.Flw.NumDRun FL.Flw.NumDTheorems
  FL.Flw.NumCleanupNames FL.Flw.NumCleanupStep FL.Flw.NumCleanupRun FL.Flw.NumCleanup
  FL.Flw.NumDCleanupStep FL.Flw.NumDCleanupRun FL.Flw.NumDCleanup
  FL.Flw.ForeignFs FL.Flw.ForeignSort FL.Flw.ForeignModel FL.Flw.NumForeign FL.Flw.NumCleanupForeign FL.Flw.NumDForeign.
From Coq Require Import ZifyN ZifyNat ZifyBool.
Open Scope nat_scope.

(* ------------------------------------------------------------------ the states of the run in the clean directory *)
Definition good_sys_dk (c : config) (k : cleanup) (x : sys) : Prop := forall s, s_flw x = Some s -> good_flw_dk c k s.

Lemma reldk_good c crit k x a : RelDK c crit k x a -> good_sys_dk c k x.
Proof.
  intros [_ [_ R]] s Es. destruct a as [[closed cur]|].
  - destruct R as [wr [roll [E _]]]. rewrite E in Es. injection Es as <-. repeat split. cbn. eauto.
  - destruct R as [E _]. rewrite E in Es. injection Es as <-. repeat split.
Qed.

(* the names of a directory of the invariant's shape (kdir, no rCURRENT) are family names *)
Lemma dk_dir_own fn c k f files lo mid : (forall n, In n (fnames fn) -> numd_member c n = false) ->
  (klimd k = None \/ sfx_ok (c_spec c)) -> (klimd k = None -> mid = 0) ->
  kdir c f files lo mid -> lookup f (cname c) = None ->
  forall n j, lookup f n = Some j -> ~ In n (fnames fn).
Proof.
  intros Hforeign Hs Hm KD Hnc n j Hj.
  destruct (kd_only _ _ _ _ _ KD n j Hj) as [->|[[i [_ ->]]|[i [Hi ->]]]].
  - rewrite Hnc in Hj. discriminate.
  - apply (rname_own_d fn c Hforeign).
  - destruct Hs as [Hs|Hs].
    + rewrite (Hm Hs) in Hi. lia.
    + intros Hf. pose proof (foreign_gz_d fn c Hforeign 0%Z _ Hf) as Q. rewrite (qf_gname_gz 0%Z c i Hs) in Q. discriminate.
Qed.

Lemma d_mid_none k L : klimd k = None -> d_mid k L = 0.
Proof. intros H. unfold d_mid. rewrite H. reflexivity. Qed.

Lemma reldk_fam fn c crit k x a : (forall n, In n (fnames fn) -> numd_member c n = false) ->
  (klimd k = None \/ sfx_ok (c_spec c)) ->
  RelDK c crit k x a -> fam_g fn (good_sys_dk c k) x.
Proof.
  intros Hforeign Hs R. split; [eapply reldk_good; exact R|]. destruct R as [_ [_ R]].
  intros n Hn. destruct a as [[closed cur]|].
  - destruct R as [wr [roll [_ [I _]]]]. apply dir_names_lookup in Hn. destruct Hn as [j Hj].
    exact (dk_dir_own fn c k _ _ _ _ Hforeign Hs (fun H => d_mid_none k _ H) (dk_dir _ _ _ _ _ _ I) (dk_nocur _ _ _ _ _ _ I) n j Hj).
  - destruct R as [_ [_ [E _]]]. unfold dir_names in Hn. rewrite E in Hn. destruct Hn.
Qed.

(* ------------------------------------------------------------------ THE THEOREM *)
(* Hypotheses as for numbersdirect_cleanup_stream (dside: with a cleanup the suffix is not gz and does not end with .gz),
   and the foreign-name condition of numbersdirect_foreign_ignored: the family test of the model (numd_member) rejects
   the name - it is not listed as a numbered file, neither plain nor compressed. *)
Theorem numbersdirect_cleanup_foreign_ignored c crit k t0 off foreign ops :
  numdkcfg c crit k -> Forall basic_op ops ->
  dside c k (nclosed (a_run None ops (snd (run (fst (step (sys0 t0 off) (OStart c))) ops)))) ->
  NoDup (List.map fst foreign) ->
  (forall n, In n (List.map fst foreign) -> numd_member c n = false) ->
  let ops' := OStart c :: ops ++ [OStop] in
  let rf := run (sys0f t0 off foreign) ops' in
  let r0 := run (sys0 t0 off) ops' in
  (* 1: the same observations; a snapshot shows the foreign files in addition *)
  List.map (strip_obs (List.map fst foreign)) (snd rf) = snd r0
  /\ (Forall (fun o => o <> OSnap) ops -> snd rf = snd r0)
  (* 2: the foreign files are in place, unchanged: neither removed nor compressed *)
  /\ (forall n d, In (n, d) foreign -> file_of (wfs (s_w (fst rf))) n = Some (plain_file t0 d))
  (* 3: every other name is what the run in the empty directory makes of it *)
  /\ (forall n, ~ In n (List.map fst foreign) -> file_of (wfs (s_w (fst rf))) n = file_of (wfs (s_w (fst r0))) n)
  /\ (forall n, In n (List.map fst foreign) -> file_of (wfs (s_w (fst r0))) n = None)
  (* the whole state: the run is the embedding of the run in the empty directory *)
  /\ fst rf = embedx (names (fs0f t0 foreign)) (inodes (fs0f t0 foreign)) (fst r0).
Proof.
  intros Hcfg Hb Hside ND Hfor. pose proof Hcfg as (Hrot & Hts & Hlink & Hasync & Hbg).
  pose proof (fs0f_names t0 foreign ND) as Hd.
  assert (Hforeign : forall n, In n (fnames (names (fs0f t0 foreign))) -> numd_member c n = false) by (rewrite Hd; exact Hfor).
  assert (Hs : klimd k = None \/ sfx_ok (c_spec c)).
  { unfold dside in Hside. destruct (klimd k); [right; apply Hside | left; reflexivity]. }
  assert (Hk : k = KNever \/ fsfx (c_spec c) <> Some gz_sfx).
  { destruct Hs as [Hs|Hs]; [left; apply klimd_none; exact Hs | right; apply sfx_ok_not_gz'; exact Hs]. }
  apply (foreign_ignored_g c (good_sys_dk c k) t0 off foreign ops Hts Hasync).
  - intros x s G Es. destruct (G s Es) as [Ec [Hp _]]. split; assumption.
  - intros x s b G Es. apply (write_buffer_embed_dk _ _ c crit k Hrot Hts Hlink Hk Hforeign). exact (G s Es).
  - intros x s G Es. apply (mount_next_embed_dk _ _ c k Hts Hlink Hk Hforeign). destruct (G s Es) as [_ [_ Gi]]. exact Gi.
  - exact Hb.
  - exact ND.
  - intros i. eapply reldk_fam; [exact Hforeign | exact Hs |].
    apply (run_rel_dk c crit k Hcfg (firstn i ops) _ None (start_rel_dk c crit k t0 off)).
    + apply Forall_firstn'. exact Hb.
    + eapply dside_le; [apply nclosed_prefix | exact Hside].
  - intros n Hn. rewrite <- Hd in Hn.
    pose proof (numbersdirect_cleanup_stream c crit k t0 off ops Hcfg Hb Hside) as [_ [V _]].
    set (f := wfs (s_w (fst (run (sys0 t0 off) (OStart c :: ops ++ [OStop]))))) in *.
    destruct (lookup f n) as [j|] eqn:Ej; [exfalso|reflexivity].
    destruct (a_run None ops (snd (run (fst (step (sys0 t0 off) (OStart c))) ops))) as [[closed cur]|].
    + destruct V as [KD [_ Hnc]].
      exact (dk_dir_own _ c k _ _ _ _ Hforeign Hs (fun H => d_mid_none k _ H) KD Hnc n j Ej Hn).
    + unfold lookup in Ej. rewrite V in Ej. discriminate.
Qed.
Print Assumptions numbersdirect_cleanup_foreign_ignored.

Lemma memberd_gname c i : sfx_ok (c_spec c) -> numd_member c (gname c i) = true.
Proof. intros Hsfx. unfold numd_member. rewrite (qf_gname_gz 0%Z c i Hsfx). apply orb_true_r. Qed.

(* numbersdirect_cleanup carries over: what the directory with the foreign files holds after the run.
   closed, cur: the reader's view that the run would leave without cleanup; (n, m) = klimd k: n plain files - the file being
   written, r<L>, included - and m archives are kept. *)
Theorem numbersdirect_cleanup_foreign_dir c crit k n m t0 off foreign ops closed cur :
  numdkcfg c crit k -> klimd k = Some (n, m) -> Forall basic_op ops ->
  sfx_ok (c_spec c) ->
  a_run None ops (snd (run (fst (step (sys0 t0 off) (OStart c))) ops)) = Some (closed, cur) ->
  NoDup (List.map fst foreign) ->
  (forall x, In x (List.map fst foreign) -> numd_member c x = false) ->
  let ff := wfs (s_w (fst (run (sys0f t0 off foreign) (OStart c :: ops ++ [OStop])))) in
  let L := length closed in let lo := S L - (n + m) in let mid := S L - n in
  concat closed ++ cur = written ops
  (* exactly these names exist *)
  /\ (forall x, file_of ff x <> None <->
        In x (List.map fst foreign) \/ (exists i, mid <= i <= L /\ x = rname c i)
        \/ (exists i, lo <= i < mid /\ x = gname c i))
  (* the foreign files as they were *)
  /\ (forall x d, In (x, d) foreign -> file_of ff x = Some (plain_file t0 d))
  (* the newest n - 1 closed files as they were closed, the next m as complete archives, the current file r<L> *)
  /\ (forall i, mid <= i < L ->
        exists fl, file_of ff (rname c i) = Some fl /\ fdata fl = nth i closed [] /\ fgz fl = 0%N /\ fdir fl = false)
  /\ (forall i, lo <= i < mid ->
        exists fl, file_of ff (gname c i) = Some fl /\ fdata fl = nth i closed [] /\ fgz fl = 1%N /\ fdir fl = false)
  /\ (exists fl, file_of ff (rname c L) = Some fl /\ fdata fl = cur /\ fgz fl = 0%N /\ fdir fl = false)
  (* older family files are gone *)
  /\ (forall i, i < lo -> file_of ff (rname c i) = None /\ file_of ff (gname c i) = None).
Proof.
  intros Hcfg Hk Hb Hsfx Ea ND Hfor ff L lo mid.
  assert (Hside : dside c k (nclosed (a_run None ops (snd (run (fst (step (sys0 t0 off) (OStart c))) ops))))).
  { rewrite Ea. unfold dside. rewrite Hk. exact Hsfx. }
  destruct (numbersdirect_cleanup_foreign_ignored c crit k t0 off foreign ops Hcfg Hb Hside ND Hfor) as (_ & _ & F2 & F3 & F4 & _).
  fold ff in F2, F3.
  destruct (numbersdirect_cleanup c crit k n m t0 off ops closed cur Hcfg Hk Hb Hsfx Ea)
    as (P0 & Pn & _ & _ & _ & _ & _ & _ & _ & _ & Pp & Pa & Po & _ & _ & Pc).
  set (f0 := wfs (s_w (fst (run (sys0 t0 off) (OStart c :: ops ++ [OStop]))))) in *. fold L lo mid in Pn, Pp, Pa, Po, Pc.
  assert (Hrn : forall i, ~ In (rname c i) (List.map fst foreign)).
  { intros i Hi. apply Hfor in Hi. rewrite memberd_rname in Hi. discriminate. }
  assert (Hgn : forall i, ~ In (gname c i) (List.map fst foreign)).
  { intros i Hi. apply Hfor in Hi. rewrite (memberd_gname c i Hsfx) in Hi. discriminate. }
  split; [exact P0|]. split; [|split; [exact F2|split; [|split; [|split]]]].
  - exact (exists_iff foreign ff f0 t0 F2 F3 _ Pn).
  - intros i Hi. rewrite (F3 _ (Hrn i)). destruct (Pp i Hi) as [_ H]. exact H.
  - intros i Hi. rewrite (F3 _ (Hgn i)). destruct (Pa i Hi) as [_ H]. exact H.
  - rewrite (F3 _ (Hrn L)). exact Pc.
  - intros i Hi. rewrite (F3 _ (Hrn i)), (F3 _ (Hgn i)). destruct (Po i Hi) as [H1 H2]. unfold file_of. rewrite H1, H2. split; reflexivity.
Qed.
Print Assumptions numbersdirect_cleanup_foreign_dir.

(* ------------------------------------------------------------------ example *)
Import String.StringSyntax.
Open Scope string_scope.
(* the current file, one more plain file and one archive are kept *)
Definition exdf_k : config :=
  {| c_spec := c_spec exdf_c; c_append := false; c_cap := None; c_rot := Some (CSize 3, NNumbersDirect, KLogGz 2 1); c_utc := false;
     c_symlink := false; c_bg := false; c_async := false; c_start := None |}.

(* the near misses of NumDForeign.exdf_foreign (among them the rCURRENT file and its archive), and near misses of the archive
   names *)
Definition exdf_foreign_k : list (bytes * bytes) :=
  exdf_foreign ++ [ (bs "a_r00000.log.gz.bak", bs "p"); (bs "a_r00001.gz", bs "o"); (bs "a_r00001.log.gzip", bs "n") ].

Example cleanup_foreign_hypotheses_d :
  numdkcfg exdf_k (CSize 3) (KLogGz 2 1) /\ Forall basic_op NumForeign.ex_ops
  /\ dside exdf_k (KLogGz 2 1) (nclosed (a_run None NumForeign.ex_ops (snd (run (fst (step (sys0 0 0) (OStart exdf_k))) NumForeign.ex_ops))))
  /\ NoDup (List.map fst exdf_foreign_k)
  /\ (forall n, In n (List.map fst exdf_foreign_k) -> numd_member exdf_k n = false).
Proof.
  split; [repeat split|]. split; [repeat constructor|]. split; [|split].
  - vm_compute; reflexivity.
  - apply nodupb_sound. vm_compute. reflexivity.
  - apply forallb_false. vm_compute. reflexivity.
Qed.

Example cleanup_foreign_instance_d :
  List.map (strip_obs (List.map fst exdf_foreign_k)) (snd (run (sys0f 0 0 exdf_foreign_k) (OStart exdf_k :: NumForeign.ex_ops ++ [OStop])))
  = snd (run (sys0 0 0) (OStart exdf_k :: NumForeign.ex_ops ++ [OStop])).
Proof.
  destruct cleanup_foreign_hypotheses_d as (H1 & H2 & H3 & H4 & H5).
  exact (proj1 (numbersdirect_cleanup_foreign_ignored exdf_k (CSize 3) (KLogGz 2 1) 0 0 exdf_foreign_k NumForeign.ex_ops H1 H2 H3 H4 H5)).
Qed.

(* computed: the cleanup has removed r00000, compressed r00001 and kept r00002 and the current file r00003 - and nothing
   else: a_r00001x.log, a_r1backup.log, a_r1x.log, a_r7x.log and a_r2024-02-29_23-59-58.log, which the number filter took for
   numbered files before its repair (and the cleanup would have counted, compressed or deleted), a_rCURRENT.log and the
   near misses of the archive names are left alone *)
Example cleanup_foreign_instance_dir_d :
  ex_snap (fst (run (sys0f 0 0 exdf_foreign_k) (OStart exdf_k :: NumForeign.ex_ops ++ [OStop])))
  = [ (bs "a.log", 0%N, bs "q");
      (bs "a_r00000.log.gz.bak", 0%N, bs "p");
      (bs "a_r00001", 0%N, bs "t");
      (bs "a_r00001.gz", 0%N, bs "o");
      (bs "a_r00001.log.bak", 0%N, bs "w");
      (bs "a_r00001.log.gz", 1%N, bs "ef");
      (bs "a_r00001.log.gzip", 0%N, bs "n");
      (bs "a_r00001.txt", 0%N, bs "z");
      (bs "a_r00001x.log", 0%N, bs "3");
      (bs "a_r00002.log", 0%N, bs "ghij");
      (bs "a_r00003.log", 0%N, bs "k");
      (bs "a_r1backup.log", 0%N, bs "2");
      (bs "a_r1x.log", 0%N, bs "1");
      (bs "a_r2024-02-29_23-59-58.log", 0%N, bs "4");
      (bs "a_r7x.log", 0%N, bs "5");
      (bs "a_rCURRENT.log", 0%N, bs "p");
      (bs "a_rCURRENT.log.gz", 0%N, bs "s");
      (bs "a_rx.log", 0%N, bs "x");
      (bs "ax_r00001.log", 0%N, bs "v");
      (bs "b.log", 0%N, bs "y") ]
  /\ ex_snap (fst (run (sys0 0 0) (OStart exdf_k :: NumForeign.ex_ops ++ [OStop])))
  = [ (bs "a_r00001.log.gz", 1%N, bs "ef"); (bs "a_r00002.log", 0%N, bs "ghij"); (bs "a_r00003.log", 0%N, bs "k") ].
Proof. vm_compute. split; reflexivity. Qed.

(* the directory theorem applied: L = 3 closed files, n = 2, m = 1: lo = 1, mid = 2 *)
Example cleanup_foreign_dir_instance_d :
  let ff := wfs (s_w (fst (run (sys0f 0 0 exdf_foreign_k) (OStart exdf_k :: NumForeign.ex_ops ++ [OStop])))) in
  (forall x d, In (x, d) exdf_foreign_k -> file_of ff x = Some (plain_file 0 d))
  /\ (exists fl, file_of ff (gname exdf_k 1) = Some fl /\ fdata fl = bs "ef" /\ fgz fl = 1%N /\ fdir fl = false)
  /\ (exists fl, file_of ff (rname exdf_k 3) = Some fl /\ fdata fl = bs "k" /\ fgz fl = 0%N /\ fdir fl = false)
  /\ file_of ff (rname exdf_k 0) = None /\ file_of ff (gname exdf_k 0) = None.
Proof.
  intros ff. destruct cleanup_foreign_hypotheses_d as (H1 & H2 & _ & H4 & H5).
  assert (Ea : a_run None NumForeign.ex_ops (snd (run (fst (step (sys0 0 0) (OStart exdf_k))) NumForeign.ex_ops))
               = Some ([bs "abcd"; bs "ef"; bs "ghij"], bs "k")) by (vm_compute; reflexivity).
  pose proof (numbersdirect_cleanup_foreign_dir exdf_k (CSize 3) (KLogGz 2 1) 2 1 0 0 exdf_foreign_k NumForeign.ex_ops _ _
                H1 eq_refl H2 ltac:(vm_compute; reflexivity) Ea H4 H5) as T.
  cbv zeta in T. fold ff in T. cbn [length Nat.sub Nat.add] in T.
  destruct T as (_ & _ & F & _ & A & C & O).
  split; [exact F|]. split; [exact (A 1 ltac:(lia))|]. split; [exact C|]. exact (O 0 ltac:(lia)).
Qed.

(* THE BOUNDARY of "foreign" (model behaviour worth knowing): a file that this writer did not write but whose name follows
   the pattern - "a_r7.log", a number of one digit - is a member (numd_member = true), so the theorem does not speak about
   it: it counts as index 7, the writer goes on with r00008, and the cleanup treats it as the oldest family file: after the
   first record it is still there (two plain files are allowed), at the end of the history it has been REMOVED together
   with r00008.  With KLogGz 2 2 it would have been compressed to a_r7.log.gz instead. *)
Example member_file_is_cleaned_d :
  numd_member exdf_k (bs "a_r7.log") = true
  /\ ex_snap (fst (run (sys0f 0 0 [(bs "a_r7.log", bs "w")]) ([OStart exdf_k; OWrite (bs "ab")] ++ [OStop])))
     = [ (bs "a_r00008.log", 0%N, bs "ab"); (bs "a_r7.log", 0%N, bs "w") ]
  /\ ex_snap (fst (run (sys0f 0 0 [(bs "a_r7.log", bs "w")]) (OStart exdf_k :: NumForeign.ex_ops ++ [OStop])))
     = [ (bs "a_r00009.log.gz", 1%N, bs "ef"); (bs "a_r00010.log", 0%N, bs "ghij"); (bs "a_r00011.log", 0%N, bs "k") ].
Proof. vm_compute. repeat split; reflexivity. Qed.
