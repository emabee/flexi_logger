(* Numbers naming with a cleanup strategy, restart after a kill (C11), part 3: what the next writer's listing and cleanup
   make of a directory of the shape xdir - in particular of an archive that stands next to its original (interrupted
   compression): it is listed, recognised as redundant (redundant_gz), removed before the cleanup proper, and the
   original is compressed anew if the limits say so. *)
Require Import FL.Base.Bytes FL.Base.BytesFacts FL.Base.PathName FL.Fs.Fs FL.Fs.FsFacts FL.Time.TsFormat
  FL.Names.FileSpec FL.Names.SortFacts FL.Names.FamilyFacts FL.Flw.Model FL.Flw.ModelFacts FL.Flw.NumFs
  FL.Flw.NumInv FL.Flw.Run FL.Flw.NumRun FL.Flw.NumListing FL.Flw.CleanupFacts
  FL.Flw.NumCleanupNames FL.Flw.NumCleanupStep FL.Flw.NumCleanupRun FL.Flw.KillFacts FL.Flw.NumCleanupKillDir
  FL.Flw.NumCleanupKillStep.
From Coq Require Import ZifyN ZifyNat ZifyBool Permutation Sorted.
Open Scope nat_scope.

(* ------------------------------------------------------------------ the listing: archives lo <= i < amid, plain files mid <= i < L *)
Record dir_shape2 (c : config) (f : fs) (lo amid mid L : nat) : Prop := {
  d2_le : lo <= amid /\ mid <= L /\ amid <= L;
  d2_nodup : NoDup (dir_names f);
  d2_plain : forall i, mid <= i < L -> exists j, lookup f (rname c i) = Some j /\ fdir (inode f j) = false;
  d2_arch : forall i, lo <= i < amid -> exists j, lookup f (gname c i) = Some j /\ fdir (inode f j) = false;
  d2_only : forall n j, lookup f n = Some j ->
      n = cname c \/ (exists i, mid <= i < L /\ n = rname c i) \/ (exists i, lo <= i < amid /\ n = gname c i) }.

Definition listing2 (c : config) (lo amid mid L : nat) : list bytes :=
  rev (map (rname c) (seq mid (L - mid))) ++ rev (map (gname c) (seq lo (amid - lo))).

Section Listing2.
Variables (c : config) (f : fs) (off : Z) (lo amid mid L : nat).
Hypothesis Hsfx : sfx_ok (c_spec c).
Hypothesis DS : dir_shape2 c f lo amid mid L.

Let sfx := fsfx (c_spec c).
Let S := sort_by_key sfx (filter (fun n => is_reg_file f n && is_prefix (fixed0 c) n) (dir_names f)).

Lemma S2_sorted : StronglySorted (key_rel sfx) S.
Proof. apply sort_by_key_strongly_sorted. Qed.
Lemma S2_nodup : NoDup S.
Proof. eapply Permutation_NoDup; [apply Permutation_sym, sort_by_key_perm|]. apply NoDup_filter, DS. Qed.
Lemma S2_in n : In n S <-> (exists j, lookup f n = Some j) /\ is_reg_file f n = true /\ is_prefix (fixed0 c) n = true.
Proof. unfold S. rewrite In_sort_by_key, filter_In, andb_true_iff, dir_names_lookup. tauto. Qed.

Lemma plain_part2 :
  filter (qf off sfx (fixed0 c) IFNum sfx) S = map (rname c) (seq mid (L - mid)).
Proof.
  pose proof (d2_le _ _ _ _ _ _ DS) as Hle.
  apply (sorted_unique (key_rel sfx)).
  - intros x y. apply key_le_antisym.
  - apply StronglySorted_filter, S2_sorted.
  - apply StronglySorted_map_seq. intros i j Hi Hij Hj. unfold key_rel, sfx.
    apply (key_le_number_any c i j false false Hsfx Hij).
  - apply NoDup_filter, S2_nodup.
  - apply FinFun.Injective_map_NoDup; [intros i j E; exact (rname_inj _ _ _ E) | apply seq_NoDup].
  - intros x. rewrite filter_In, S2_in, in_map_iff. split.
    + intros [[[j Lj] _] Q]. destruct (d2_only _ _ _ _ _ _ DS x j Lj) as [->|[(i & Hi & ->)|(i & Hi & ->)]].
      * unfold sfx in Q. rewrite qf_cname in Q. discriminate.
      * exists i. split; [reflexivity | apply in_seq; lia].
      * unfold sfx in Q. rewrite qf_gname_plain in Q by exact Hsfx. discriminate.
    + intros (i & <- & Hi). apply in_seq in Hi. destruct (d2_plain _ _ _ _ _ _ DS i ltac:(lia)) as (j & Lj & Dj).
      split; [split; [eauto | split]|].
      * unfold is_reg_file, file_of. rewrite Lj, Dj. reflexivity.
      * rewrite rname_shape. apply is_prefix_under.
      * apply qf_rname.
Qed.

Lemma arch_part2 :
  filter (qf off sfx (fixed0 c) IFNum (Some gz_sfx)) S = map (gname c) (seq lo (amid - lo)).
Proof.
  pose proof (d2_le _ _ _ _ _ _ DS) as Hle.
  apply (sorted_unique (key_rel sfx)).
  - intros x y. apply key_le_antisym.
  - apply StronglySorted_filter, S2_sorted.
  - apply StronglySorted_map_seq. intros i j Hi Hij Hj. unfold key_rel, sfx. rewrite <- !add_gz_gname.
    apply (key_le_number_any c i j true true Hsfx Hij).
  - apply NoDup_filter, S2_nodup.
  - apply FinFun.Injective_map_NoDup; [intros i j E; exact (gname_inj _ _ _ E) | apply seq_NoDup].
  - intros x. rewrite filter_In, S2_in, in_map_iff. split.
    + intros [[[j Lj] _] Q]. destruct (d2_only _ _ _ _ _ _ DS x j Lj) as [->|[(i & Hi & ->)|(i & Hi & ->)]].
      * unfold sfx in Q. rewrite qf_cname in Q. discriminate.
      * unfold sfx in Q. rewrite qf_rname_gz in Q by exact Hsfx. discriminate.
      * exists i. split; [reflexivity | apply in_seq; lia].
    + intros (i & <- & Hi). apply in_seq in Hi. destruct (d2_arch _ _ _ _ _ _ DS i ltac:(lia)) as (j & Lj & Dj).
      split; [split; [eauto | split]|].
      * unfold is_reg_file, file_of. rewrite Lj, Dj. reflexivity.
      * rewrite gname_app, rname_shape, <- app_assoc. apply is_prefix_under.
      * apply qf_gname_gz. exact Hsfx.
Qed.

Theorem list_log_gz_numbers2 :
  list_log_gz off (c_spec c) (fixed0 c) f IFNum = Some (listing2 c lo amid mid L).
Proof.
  unfold list_log_gz, existing_rot, sel_log_gz. cbn [sel_plain sel_gz sel_rcur sel_custom].
  rewrite !filter_files_total. cbn [app_opt]. rewrite !app_nil_r. unfold related_files.
  fold sfx. fold S. rewrite !filter_rev', plain_part2, arch_part2. reflexivity.
Qed.
End Listing2.

(* the shape of an xdir: the redundant archive is one more archive, at the number mid *)
Definition amid_of (mid : nat) (red : option bool) : nat := match red with Some _ => S mid | None => mid end.

Lemma xdir_shape2 c f closed ocur lo mid red : xdir c (file_of f) closed ocur lo mid red -> nodup_names f ->
  dir_shape2 c f lo (amid_of mid red) mid (length closed).
Proof.
  intros [H1 H2 H3 H4 H5 H6] Hnd. constructor.
  - destruct red as [b|]; cbn [amid_of]; [destruct H5 as [Hm _]|]; lia.
  - exact Hnd.
  - intros i Hi. destruct (H2 i Hi) as (fl & Ff & _ & D & _). apply file_of_some in Ff. destruct Ff as (j & Lj & ->). eauto.
  - intros i Hi. destruct (Nat.lt_ge_cases i mid) as [Hlt|Hge].
    + destruct (H3 i ltac:(lia)) as (fl & Ff & _ & D & _). apply file_of_some in Ff. destruct Ff as (j & Lj & ->). eauto.
    + destruct red as [b|]; cbn [amid_of] in Hi; [|lia]. assert (i = mid) by lia. subst i.
      destruct H5 as [_ (fl & Ff & _ & D & _)]. apply file_of_some in Ff. destruct Ff as (j & Lj & ->). eauto.
  - intros x j Lj. assert (E : file_of f x = Some (inode f j)) by (unfold file_of; rewrite Lj; reflexivity).
    destruct (H6 _ _ E) as [H|[H|[(i & Hi & H)|(Hx & H)]]]; [auto | auto | |].
    + right. right. exists i. split; [destruct red; cbn [amid_of]; lia | exact H].
    + right. right. exists mid. split; [|exact H]. destruct red; cbn [amid_of]; [lia | congruence].
Qed.

(* ------------------------------------------------------------------ the redundant archive in the listing *)
Lemma listing2_red c lo mid L : lo <= mid ->
  listing2 c lo (S mid) mid L
  = rev (map (rname c) (seq mid (L - mid))) ++ gname c mid :: rev (map (gname c) (seq lo (mid - lo))).
Proof.
  intros H. unfold listing2. f_equal. replace (S mid - lo) with (mid - lo + 1) by lia.
  rewrite seq_app, map_app, rev_app_distr. cbn [seq map rev app]. do 2 f_equal. lia.
Qed.

Lemma redundant_gz_red c lo mid L : sfx_ok (c_spec c) -> lo <= mid < L ->
  redundant_gz (listing2 c lo (S mid) mid L) = [gname c mid].
Proof.
  intros Hs H. rewrite listing2_red by lia. unfold redundant_gz.
  set (P := rev (map (rname c) (seq mid (L - mid)))). set (A := rev (map (gname c) (seq lo (mid - lo)))).
  set (all := P ++ gname c mid :: A).
  assert (InP : forall x, In x P <-> exists i, mid <= i < L /\ x = rname c i).
  { intros x. unfold P. rewrite <- in_rev, in_map_iff. split.
    - intros (i & <- & Hi). apply in_seq in Hi. exists i. split; [lia | reflexivity].
    - intros (i & Hi & ->). exists i. split; [reflexivity | apply in_seq; lia]. }
  assert (InA : forall x, In x A <-> exists i, lo <= i < mid /\ x = gname c i).
  { intros x. unfold A. rewrite <- in_rev, in_map_iff. split.
    - intros (i & <- & Hi). apply in_seq in Hi. exists i. split; [lia | reflexivity].
    - intros (i & Hi & ->). exists i. split; [reflexivity | apply in_seq; lia]. }
  assert (Orig : forall i, existsb (beq (rname c i)) all = true <-> mid <= i < L).
  { intros i. rewrite existsb_exists. split.
    - intros (x & Hx & B). apply beq_eq in B. subst x. unfold all in Hx. apply in_app_or in Hx. destruct Hx as [Hx|[Hx|Hx]].
      + apply InP in Hx. destruct Hx as (i' & Hi' & E). apply rname_inj in E. lia.
      + exfalso. exact (gname_ne_rname _ _ _ Hx).
      + apply InA in Hx. destruct Hx as (i' & _ & E). exfalso. exact (gname_ne_rname _ _ _ (eq_sym E)).
    - intros Hi. exists (rname c i). split; [|apply beq_refl]. unfold all. apply in_or_app. left. apply InP. eauto. }
  assert (G : forall l, (forall i, existsb (beq (rname c i)) l = true <-> mid <= i < L) ->
              filter (fun x => ext_is x gz_sfx && existsb (beq (set_extension x [])) l) (P ++ gname c mid :: A) = [gname c mid]).
  { intros l Ol. rewrite filter_app. cbn [filter].
    rewrite (filter_all_false _ P), (filter_all_false _ A).
    - rewrite gname_is_gz, gname_strip. cbn [andb]. rewrite (proj2 (Ol mid)) by lia. reflexivity.
    - intros x Hx. apply InA in Hx. destruct Hx as (i & Hi & ->). rewrite gname_is_gz, gname_strip. cbn [andb].
      destruct (existsb (beq (rname c i)) l) eqn:E; [|reflexivity]. apply Ol in E. lia.
    - intros x Hx. apply InP in Hx. destruct Hx as (i & Hi & ->). rewrite rname_not_gz by exact Hs. reflexivity. }
  exact (G all Orig).
Qed.

Lemma listing2_without_red c lo mid L : lo <= mid ->
  filter (fun x => negb (beq x (gname c mid))) (listing2 c lo (S mid) mid L) = listing c lo mid L.
Proof.
  intros H. rewrite listing2_red by lia. unfold listing. rewrite filter_app. cbn [filter]. rewrite beq_refl. cbn [negb].
  rewrite !filter_all_true; [reflexivity | |].
  - intros x Hx. rewrite <- in_rev, in_map_iff in Hx. destruct Hx as (i & <- & Hi). apply in_seq in Hi.
    rewrite beq_neq; [reflexivity|]. intros E. apply gname_inj in E. lia.
  - intros x Hx. rewrite <- in_rev, in_map_iff in Hx. destruct Hx as (i & <- & Hi).
    rewrite beq_neq; [reflexivity|]. intros E. exact (gname_ne_rname _ _ _ (eq_sym E)).
Qed.

Lemma listing2_none c lo mid L : listing2 c lo mid mid L = listing c lo mid L.
Proof. reflexivity. Qed.

(* ------------------------------------------------------------------ the loop on a directory without leftovers *)
Lemma cleanup_loop_numbers c crit k n m w closed lo mid :
  numkcfg c crit k -> sfx_ok (c_spec c) -> klim k = Some (n, m) ->
  quiet w -> fs_wf (wfs w) -> kdir c (wfs w) closed lo mid ->
  exists w', cleanup_loop w (listing c lo mid (length closed)) 0 n (n + m) None = (true, w') /\ same_env w w' /\ fs_wf (wfs w')
    /\ kdir c (wfs w') closed (Nat.max lo (length closed - (n + m))) (Nat.max mid (length closed - n))
    /\ same_at (wfs w) (wfs w') (cname c).
Proof.
  intros (Hrot & Hts & _) Hsfx Hk Q W KD.
  destruct (cleanup_numbers c w k n m closed lo mid Hts Hsfx Hk Q W KD) as (w' & E & S & W' & KD' & SC).
  rewrite (cleanup_impl_unfold c w k IFNum n m Hk Q), (fixed_of_fixed0 c w Hts) in E.
  rewrite (list_log_gz_numbers c (wfs w) (woff w) lo mid (length closed) Hsfx (kdir_shape _ _ _ _ _ KD)) in E.
  rewrite (listing_no_redundant c lo mid (length closed) Hsfx (kd_le _ _ _ _ _ KD)) in E. cbn [remove_redundant negb] in E.
  destruct (cleanup_loop w (listing c lo mid (length closed)) 0 n (n + m) None) as [ok w2].
  destruct ok; [|discriminate]. injection E as ->. exists w'. auto.
Qed.

(* ------------------------------------------------------------------ one cleanup on an xdir: the repair *)
Theorem cleanup_xdir c crit k n m w closed ocur lo mid red :
  numkcfg c crit k -> sfx_ok (c_spec c) -> klim k = Some (n, m) ->
  quiet w -> kst c (wfs w) (wfs w) closed ocur lo mid red ->
  exists w', cleanup_impl c w k IFNum None = (Ok tt, w') /\ same_env w w'
    /\ kst c (wfs w) (wfs w') closed ocur (Nat.max lo (length closed - (n + m))) (Nat.max mid (length closed - n)) None.
Proof.
  intros Hcfg Hsfx Hk Q K. pose proof Hcfg as (Hrot & Hts & _). pose proof K as [W Nd X Sc].
  pose proof (xd_le _ _ _ _ _ _ _ X) as Hle.
  rewrite (cleanup_impl_unfold c w k IFNum n m Hk Q), (fixed_of_fixed0 c w Hts).
  rewrite (list_log_gz_numbers2 c (wfs w) (woff w) lo (amid_of mid red) mid (length closed) Hsfx (xdir_shape2 c _ closed ocur lo mid red X Nd)).
  (* after the redundant archive has been removed *)
  assert (Rem : exists w1, remove_redundant w (redundant_gz (listing2 c lo (amid_of mid red) mid (length closed)))
                             (listing2 c lo (amid_of mid red) mid (length closed))
                           = (true, w1, listing c lo mid (length closed))
                /\ same_env w w1 /\ kst c (wfs w) (wfs w1) closed ocur lo mid None).
  { destruct red as [b|]; cbn [amid_of].
    - pose proof (xd_red _ _ _ _ _ _ _ X) as [Hm (g & Fg & _)]. apply file_of_some in Fg. destruct Fg as (ig & Lg & _).
      rewrite redundant_gz_red by (auto; lia). cbn [remove_redundant].
      destruct (p_remove_quiet w (gname c mid) ig Q Lg) as (w1 & E1 & F1 & S1). rewrite E1.
      rewrite listing2_without_red by lia. exists w1. split; [reflexivity|]. split; [exact S1|].
      rewrite F1. constructor.
      + apply wf_unlink. exact W.
      + apply nd_unlink. exact Nd.
      + eapply xdir_ext; [intros y; apply file_of_unlink|]. apply (xdir_remove_red c _ closed ocur lo mid b). exact X.
      + apply same_at_unlink. intros E. exact (gname_not_cname _ _ (eq_sym E)).
    - rewrite listing2_none, (listing_no_redundant c lo mid (length closed) Hsfx Hle). cbn [remove_redundant].
      exists w. split; [reflexivity|]. split; [apply same_env_refl; exact Q | exact K]. }
  destruct Rem as (w1 & E1 & S1 & K1). rewrite E1. cbn [negb].
  pose proof K1 as [W1 Nd1 X1 Sc1].
  assert (KD1 : kdir c (wfs w1) closed lo mid) by (eapply xdir_kdir; eassumption).
  destruct (cleanup_loop_numbers c crit k n m w1 closed lo mid Hcfg Hsfx Hk (proj1 S1) W1 KD1) as (w' & E & S & W' & KD' & SC).
  rewrite E. exists w'. split; [reflexivity|]. split; [eapply same_env_trans; eassumption|].
  constructor.
  - exact W'.
  - exact (kd_nodup _ _ _ _ _ KD').
  - apply kdir_xdir; [exact KD'|]. destruct ocur as [cu|].
    + destruct (xdir_cur_lookup c _ closed cu lo mid None X1) as (j & Lj & Pj & Cj).
      destruct (same_at_content _ _ _ _ SC Lj) as [Lj' Ij']. exists j. split; [exact Lj'|]. unfold content. rewrite Ij'. split; assumption.
    + destruct SC as [SL _]. rewrite SL. apply file_of_none. exact (xd_cur _ _ _ _ _ _ _ X1).
  - eapply same_at_trans; eassumption.
Qed.
Print Assumptions cleanup_xdir.

(* ------------------------------------------------------------------ the highest index *)
(* (the bound: get_highest_index parses the numbers as u32; it has nothing to do with the order of the listing) *)
Lemma index_of_gname c i : (N.of_nat i <= u32_max)%N ->
  index_of_listed (fixed0 c) (gname c i) = Some (N.of_nat i).
Proof.
  intros Hi. unfold index_of_listed. rewrite gname_app, rname_shape.
  assert (E : (under (fixed0 c) ++ (r_char :: digs (N.of_nat i)) ++ sfxs (c_spec c)) ++ dot_gz
              = (match fixed0 c with [] => [r_char] | _ => fixed0 c ++ [uscore; r_char] end)
                ++ (digs (N.of_nat i) ++ (sfxs (c_spec c) ++ dot_gz))).
  { unfold under. destruct (fixed0 c) as [|f0 fr]; cbn [app]; rewrite <- ?app_assoc; cbn [app]; rewrite <- ?app_assoc; reflexivity. }
  rewrite E, strip_prefix_app.
  assert (T : exists t, sfxs (c_spec c) ++ dot_gz = dot :: t).
  { unfold sfxs, dot_gz. destruct (fsfx (c_spec c)); cbn [app]; eauto. }
  destruct T as [t ->].
  rewrite find_byte_app by (apply digs_no; reflexivity). rewrite firstn_length_app, parse_digs by exact Hi. reflexivity.
Qed.

Lemma max_opt_top l L : 0 < L -> (forall v, In v l -> exists i, i < L /\ v = N.of_nat i) -> In (N.of_nat (L - 1)) l ->
  max_opt l = Some (N.of_nat (L - 1)).
Proof.
  intros HL Hall Hin. pose proof (max_opt_spec l) as S. destruct (max_opt l) as [mx|].
  - destruct S as [Im Hm]. destruct (Hall _ Im) as (i & Hi & ->). specialize (Hm _ Hin). f_equal. lia.
  - subst l. destruct Hin.
Qed.

Lemma highest_index_xdir c off f closed ocur lo mid red :
  sfx_ok (c_spec c) -> (N.of_nat (length closed) <= u32_max)%N ->
  xdir c (file_of f) closed ocur lo mid red -> nodup_names f -> (lo < length closed \/ length closed = 0) ->
  get_highest_index off (c_spec c) (fixed0 c) f
  = Some (match length closed with O => None | S l => Some (N.of_nat l) end).
Proof.
  intros Hsfx HL X Nd Hlo. unfold get_highest_index.
  rewrite (list_log_gz_numbers2 c f off lo (amid_of mid red) mid (length closed) Hsfx (xdir_shape2 c f closed ocur lo mid red X Nd)).
  f_equal. pose proof (xd_le _ _ _ _ _ _ _ X) as Hle. set (L := length closed) in *.
  assert (Ham : mid <= amid_of mid red <= L).
  { destruct red as [b|]; cbn [amid_of]; [destruct (xd_red _ _ _ _ _ _ _ X) as [Hm _]; fold L in Hm|]; lia. }
  assert (In2 : forall x, In x (listing2 c lo (amid_of mid red) mid L) <->
                (exists i, mid <= i < L /\ x = rname c i) \/ (exists i, lo <= i < amid_of mid red /\ x = gname c i)).
  { intros x. unfold listing2. rewrite in_app_iff, <- !in_rev, !in_map_iff. split.
    - intros [(i & <- & Hi)|(i & <- & Hi)]; apply in_seq in Hi; [left | right]; exists i; split; auto; lia.
    - intros [(i & Hi & ->)|(i & Hi & ->)]; [left | right]; exists i; split; auto; apply in_seq; lia. }
  destruct L as [|l] eqn:EL.
  - (* no closed file *)
    assert (E : listing2 c lo (amid_of mid red) mid 0 = []).
    { unfold listing2. replace (0 - mid) with 0 by lia. replace (amid_of mid red - lo) with 0 by lia. reflexivity. }
    rewrite E. reflexivity.
  - assert (El : N.of_nat l = N.of_nat (S l - 1)) by (f_equal; lia). rewrite El. apply max_opt_top; [lia | |].
    + intros v Hv. apply filter_map_opt_in in Hv. destruct Hv as (x & Hx & Ex). apply In2 in Hx.
      destruct Hx as [(i & Hi & ->)|(i & Hi & ->)].
      * rewrite index_of_rname in Ex by lia. injection Ex as <-. exists i. split; [lia | reflexivity].
      * rewrite index_of_gname in Ex by lia. injection Ex as <-. exists i. split; [lia | reflexivity].
    + apply filter_map_opt_in. destruct (Nat.lt_ge_cases (S l - 1) mid) as [Hlt|Hge].
      * exists (gname c (S l - 1)). split; [apply In2; right; exists (S l - 1); split; [lia | reflexivity]|].
        apply index_of_gname. lia.
      * exists (rname c (S l - 1)). split; [apply In2; left; exists (S l - 1); split; [lia | reflexivity]|].
        apply index_of_rname. lia.
Qed.
Print Assumptions highest_index_xdir.
