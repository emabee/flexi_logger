(* NumbersDirect naming: end-to-end statements about whole runs from an empty directory.
   The directory of a stopped writer consists exactly of r00000 .. r(n) (direct_view); the contents, in number order,
   are the same lists that Numbers naming spreads over r00000 .. r(n-1), rCURRENT. *)
Require Import FL.Base.Bytes FL.Base.BytesFacts FL.Fs.Fs FL.Names.FileSpec FL.Flw.Model FL.Flw.ModelFacts FL.Flw.NumFs
  FL.Flw.NumInv FL.Flw.Run FL.Flw.NumRun FL.Oracles.O_Flw FL.Flw.NumTheorems FL.Flw.NumRestart FL.Flw.NumDInv
  FL.Flw.NumDRun.
Import String.StringSyntax.
Open Scope nat_scope.

(* ------------------------------------------------------------------ the reader's view *)
(* an empty list of files: the directory is empty *)
Lemma direct_view_nil c f : direct_view c f [] <-> names f = [].
Proof.
  split.
  - intros [_ H]. destruct (names f) as [|[n j] r] eqn:E; [reflexivity|].
    assert (L : lookup f n = Some j) by (unfold lookup; rewrite E; cbn; rewrite beq_refl; reflexivity).
    destruct (H n j L) as [i [Hi _]]. cbn in Hi. lia.
  - intros H. split.
    + intros i Hi. cbn in Hi. lia.
    + intros n j L. rewrite lookup_empty in L by assumption. discriminate.
Qed.

(* the view determines the list of files: number and contents *)
Lemma direct_view_length c f files1 files2 : direct_view c f files1 -> direct_view c f files2 -> length files1 <= length files2.
Proof.
  intros [A1 _] [_ B2]. destruct (Nat.le_gt_cases (length files1) (length files2)) as [H|H]; [exact H|].
  destruct (A1 (length files2) H) as [j [L _]]. destruct (B2 _ _ L) as [i [Hi E]]. apply rname_inj in E. lia.
Qed.

Lemma direct_view_unique c f files1 files2 : direct_view c f files1 -> direct_view c f files2 -> files1 = files2.
Proof.
  intros V1 V2. pose proof (direct_view_length c f _ _ V1 V2) as L1. pose proof (direct_view_length c f _ _ V2 V1) as L2.
  assert (EL : length files1 = length files2) by lia.
  apply (nth_ext _ _ [] [] EL). intros i Hi.
  destruct V1 as [A1 _]. destruct V2 as [A2 _].
  assert (Hi2 : i < length files2) by (rewrite <- EL; exact Hi).
  destruct (A1 i Hi) as [j1 [Lj1 [_ C1]]]. destruct (A2 i Hi2) as [j2 [Lj2 [_ C2]]].
  rewrite Lj1 in Lj2. injection Lj2 as <-. exact (eq_trans (eq_sym C1) C2).
Qed.

(* the names in the directory are exactly rname c 0 .. rname c (n-1) *)
Lemma direct_view_names c f files n : direct_view c f files ->
  (exists j, lookup f n = Some j) <-> exists i, i < length files /\ n = rname c i.
Proof.
  intros [A B]. split.
  - intros [j L]. exact (B n j L).
  - intros [i [Hi ->]]. destruct (A i Hi) as [j [L _]]. eauto.
Qed.

Lemma files_of_direct c f a : match a with None => names f = [] | Some _ => direct_view c f (files_of a) end ->
  direct_view c f (files_of a).
Proof. destruct a as [[cl cu]|]; cbn [files_of]; intros H; [exact H | apply direct_view_nil; exact H]. Qed.

Lemma start_rel_d c crit t0 off : RelD c crit (fst (step (sys0 t0 off) (OStart c))) None.
Proof. cbn. repeat split. Qed.

(* the view of a whole run *)
Lemma run_view_d c crit t0 off ops :
  numdcfg c crit -> Forall basic_op ops ->
  exists x0 ob0, step (sys0 t0 off) (OStart c) = (x0, ob0) /\ RelD c crit x0 None /\
    direct_view c (wfs (s_w (fst (run (sys0 t0 off) (OStart c :: ops ++ [OStop])))))
                (files_of (a_run None ops (snd (run x0 ops)))).
Proof.
  intros Hcfg Hb. cbn [run]. destruct (step (sys0 t0 off) (OStart c)) as [x0 ob0] eqn:E0.
  pose proof (start_rel_d c crit t0 off) as R0. rewrite E0 in R0. cbn [fst] in R0.
  exists x0, ob0. split; [reflexivity|]. split; [exact R0|].
  rewrite run_app. pose proof (run_rel_d c crit Hcfg ops x0 None R0 Hb) as R1.
  destruct (run x0 ops) as [x1 obs1]. cbn [fst snd] in *.
  pose proof (stop_rel_d c crit x1 _ Hcfg R1) as S. cbn [run]. destruct (step x1 OStop) as [x2 ob2]. cbn [fst].
  apply files_of_direct. exact S.
Qed.

(* ------------------------------------------------------------------ the theorems *)
(* C01 for NumbersDirect naming: any criterion, any buffer capacity, with or without append.  After the writer is stopped
   the directory consists exactly of the plain files r00000 .. r(n) - consecutive numbers, nothing else; it is empty when
   nothing was written - and their contents, concatenated in this order, are exactly the bytes written. *)
Theorem numbersdirect_stream c crit t0 off ops :
  numdcfg c crit -> Forall basic_op ops ->
  exists files, direct_view c (wfs (s_w (fst (run (sys0 t0 off) (OStart c :: ops ++ [OStop]))))) files
    /\ concat files = written ops.
Proof.
  intros Hcfg Hb. destruct (run_view_d c crit t0 off ops Hcfg Hb) as [x0 [ob0 [E0 [R0 V]]]].
  exists (files_of (a_run None ops (snd (run x0 ops)))). split; [exact V|].
  pose proof (a_run_flat ops None (snd (run x0 ops)) Hb (run_length ops x0)) as F. cbn [flat app] in F. rewrite <- F.
  destruct (a_run None ops (snd (run x0 ops))) as [[cl cu]|]; cbn [files_of flat concat]; [|reflexivity].
  rewrite concat_app. cbn [concat]. rewrite app_nil_r. reflexivity.
Qed.

(* C08 for NumbersDirect naming with a size criterion: the files r00000, r00001, ... are the greedy partition of the
   records - the very same lists that Numbers naming puts into r00000, ..., rCURRENT: a trigger before the first
   record does nothing (no file has been opened yet), the first file starts empty, and every rotation starts an empty
   file under the next number *)
Theorem numbersdirect_partition c m t0 off ops :
  numdcfg c (CSize m) -> Forall basic_op ops ->
  direct_view c (wfs (s_w (fst (run (sys0 t0 off) (OStart c :: ops ++ [OStop]))))) (expected_files m None (items false ops)).
Proof.
  intros Hcfg Hb. destruct (run_view_d c (CSize m) t0 off ops Hcfg Hb) as [x0 [ob0 [E0 [R0 V]]]].
  pose proof (run_size_d c m Hcfg ops x0 None R0 Hb) as [Hs _].
  rewrite Hs, s_run_none in V by assumption. exact V.
Qed.

(* each write reports a rotation exactly when the current file (disk + buffer) already exceeds the limit *)
Theorem numbersdirect_rotates_iff c m t0 off ops i o b :
  numdcfg c (CSize m) -> Forall basic_op ops -> nth_error ops i = Some o -> (o = OWrite b \/ o = OPlain b) ->
  nth_error (snd (run (sys0 t0 off) (OStart c :: ops))) (S i)
  = Some (ObsRes 0 (m <? N.of_nat (length (cur_of (s_run m None (firstn i ops)))))%N).
Proof.
  intros Hcfg Hb Hi Ho. cbn [run]. destruct (step (sys0 t0 off) (OStart c)) as [x0 ob0] eqn:E0.
  pose proof (start_rel_d c (CSize m) t0 off) as R0. rewrite E0 in R0. cbn [fst] in R0.
  pose proof (run_size_d c m Hcfg ops x0 None R0 Hb) as [_ Hr].
  destruct (run x0 ops) as [x1 obs1]. cbn [snd nth_error] in *. exact (Hr i o Hi b Ho).
Qed.

(* the current file of the abstract run is the last file of the partition: the flag of numbersdirect_rotates_iff
   in terms of the oracle *)
Lemma s_run_cur_last m ops : Forall basic_op ops ->
  cur_of (s_run m None ops) = last (expected_files m None (items false ops)) [].
Proof.
  intros Hb. rewrite <- s_run_none by assumption.
  destruct (s_run m None ops) as [[cl cu]|]; cbn [cur_of files_of]; [|reflexivity]. rewrite last_last. reflexivity.
Qed.

Lemma firstn_Forall {A} (P : A -> Prop) n l : Forall P l -> Forall P (firstn n l).
Proof. revert n. induction l as [|x l IH]; intros n H; destruct n; cbn [firstn]; try constructor; inversion H; subst; auto. Qed.

Corollary numbersdirect_rotates_last c m t0 off ops i o b :
  numdcfg c (CSize m) -> Forall basic_op ops -> nth_error ops i = Some o -> (o = OWrite b \/ o = OPlain b) ->
  nth_error (snd (run (sys0 t0 off) (OStart c :: ops))) (S i)
  = Some (ObsRes 0 (m <? N.of_nat (length (last (expected_files m None (items false (firstn i ops))) [])))%N).
Proof.
  intros Hcfg Hb Hi Ho. rewrite (numbersdirect_rotates_iff c m t0 off ops i o b Hcfg Hb Hi Ho).
  rewrite s_run_cur_last by (apply firstn_Forall; exact Hb). reflexivity.
Qed.

(* nothing is in the directory exactly when no record was written *)
Fixpoint has_write (ops : list op) : bool :=
  match ops with [] => false | (OWrite _ | OPlain _) :: _ => true | _ :: r => has_write r end.

Lemma a_run_some p : forall ops obs, exists q, a_run (Some p) ops obs = Some q.
Proof.
  intros ops. revert p. induction ops as [|o r IH]; intros p obs; cbn [a_run]; [eauto|].
  destruct obs as [|ob robs]; [eauto|]. destruct (a_step_some p o (rot_of ob)) as [q ->]. apply IH.
Qed.

Lemma a_run_none_iff ops : forall obs, length obs = length ops -> Forall basic_op ops ->
  (a_run None ops obs = None <-> has_write ops = false).
Proof.
  induction ops as [|o r IH]; intros obs Hl Hb; [cbn; tauto|].
  destruct obs as [|ob robs]; [discriminate|]. inversion Hb as [|o' r' Ho Hr]; subst. cbn in Hl.
  destruct o; try contradiction; cbn [a_run has_write]; try (cbn [a_step]; apply IH; [lia | exact Hr]).
  - assert (X : exists p, a_step None (OWrite b) (rot_of ob) = Some p) by exact (a_step_some ([], []) (OWrite b) (rot_of ob)).
    destruct X as [p ->]. destruct (a_run_some p r robs) as [q ->]. split; discriminate.
  - assert (X : exists p, a_step None (OPlain b) (rot_of ob) = Some p) by exact (a_step_some ([], []) (OPlain b) (rot_of ob)).
    destruct X as [p ->]. destruct (a_run_some p r robs) as [q ->]. split; discriminate.
Qed.

Theorem numbersdirect_empty_iff c crit t0 off ops :
  numdcfg c crit -> Forall basic_op ops ->
  (names (wfs (s_w (fst (run (sys0 t0 off) (OStart c :: ops ++ [OStop]))))) = [] <-> has_write ops = false).
Proof.
  intros Hcfg Hb. destruct (run_view_d c crit t0 off ops Hcfg Hb) as [x0 [ob0 [E0 [R0 V]]]].
  rewrite <- (a_run_none_iff ops (snd (run x0 ops)) (run_length ops x0) Hb).
  destruct (a_run None ops (snd (run x0 ops))) as [[cl cu]|]; cbn [files_of] in V.
  - split; [|discriminate]. intros Hn. apply (direct_view_nil c) in Hn.
    pose proof (direct_view_length c _ _ _ V Hn) as L. rewrite app_length in L. cbn in L. lia.
  - split; [reflexivity|]. intros _. apply (direct_view_nil c). exact V.
Qed.

Print Assumptions numbersdirect_stream.
Print Assumptions numbersdirect_partition.
Print Assumptions numbersdirect_rotates_iff.
Print Assumptions numbersdirect_empty_iff.

(* ------------------------------------------------------------------ examples *)
Open Scope string_scope.
Definition exd_cfg (sp : file_spec) (app : bool) (crit : criterion) (cap : option nat) : config :=
  {| c_spec := sp; c_append := app; c_cap := cap; c_rot := Some (crit, NNumbersDirect, KNever); c_utc := false;
     c_symlink := false; c_bg := false; c_async := false; c_start := None |}.

Lemma exd_cfg_ok sp app crit cap : fts sp = false -> numdcfg (exd_cfg sp app crit cap) crit.
Proof. intros H. repeat split. exact H. Qed.

(* a history with a trigger before the first record, buffered records, a rotation by size, a trigger at the end *)
Definition exd_ops : list op :=
  [OTrigger; OWrite (bs "abcd"); OTick 3; OWrite (bs "ef"); OFlush; OTrigger; OPlain (bs "g"); OSnap; OWrite (bs "hi"); OTrigger].
Definition exd_c : config := exd_cfg (ex_sp "log") true (CSize 3) (Some 3%nat).

Lemma exd_ops_basic : Forall basic_op exd_ops.
Proof. repeat constructor. Qed.
Lemma exd_c_ok : numdcfg exd_c (CSize 3).
Proof. apply exd_cfg_ok. reflexivity. Qed.

(* the theorems apply (their hypotheses can be met) ... *)
Example direct_stream_instance :
  exists files,
    direct_view exd_c (wfs (s_w (fst (run (sys0 0 0) (OStart exd_c :: exd_ops ++ [OStop]))))) files
    /\ concat files = bs "abcdefghi".
Proof. exact (numbersdirect_stream exd_c (CSize 3) 0 0 exd_ops exd_c_ok exd_ops_basic). Qed.

Example direct_partition_instance :
  direct_view exd_c (wfs (s_w (fst (run (sys0 0 0) (OStart exd_c :: exd_ops ++ [OStop])))))
    [bs "abcd"; bs "ef"; bs "ghi"; bs ""].
Proof. exact (numbersdirect_partition exd_c 3 0 0 exd_ops exd_c_ok exd_ops_basic). Qed.

(* ... and this is the directory that the model computes: the write of "ef" finds "abcd" (4 > 3) and rotates, the write
   of "hi" finds "g" and does not; the trigger before the first record leaves no trace, the last one an empty file *)
Example direct_instance_dir :
  snap_of (fst (run (sys0 0 0) (OStart exd_c :: exd_ops ++ [OStop])))
  = [ (bs "app_r00000.log", 0%N, bs "abcd"); (bs "app_r00001.log", 0%N, bs "ef"); (bs "app_r00002.log", 0%N, bs "ghi");
      (bs "app_r00003.log", 0%N, bs "") ].
Proof. vm_compute. reflexivity. Qed.

(* the rotation flags of the writes, as computed: only the write of "ef" rotates *)
Example direct_instance_flags :
  List.map rot_of (snd (run (sys0 0 0) (OStart exd_c :: exd_ops)))
  = [false; false; false; false; true; false; false; false; false; false; false].
Proof. vm_compute. reflexivity. Qed.

(* the rotation flag of the write of "ef" (operation 3 of the history), by the theorem *)
Example direct_rotates_instance :
  nth_error (snd (run (sys0 0 0) (OStart exd_c :: exd_ops))) 4 = Some (ObsRes 0 true).
Proof.
  rewrite (numbersdirect_rotates_iff exd_c 3 0 0 exd_ops 3 (OWrite (bs "ef")) (bs "ef") exd_c_ok exd_ops_basic eq_refl
             (or_introl eq_refl)).
  vm_compute. reflexivity.
Qed.

(* the same history with Numbers naming: the same contents, the last one in rCURRENT *)
Example numbers_same_contents :
  List.map snd (snap_of (fst (run (sys0 0 0) (OStart (ex_cfg (ex_sp "log") true (CSize 3) (Some 3%nat)) :: exd_ops ++ [OStop]))))
  = List.map snd (snap_of (fst (run (sys0 0 0) (OStart exd_c :: exd_ops ++ [OStop])))).
Proof. vm_compute. reflexivity. Qed.

(* a history without a record: nothing is created *)
Example direct_no_write_dir :
  snap_of (fst (run (sys0 0 0) (OStart (exd_cfg (ex_sp "log") false (CAge ADay) None)
                                 :: [OTrigger; OFlush; OTick 100000; OTrigger] ++ [OStop])))
  = [].
Proof. vm_compute. reflexivity. Qed.

(* a file spec without suffix and with a discriminant, an age criterion: the clock decides about the rotation *)
Definition exd_sp2 : file_spec := {| fbase := bs "srv"; fdisc := Some (bs "a1"); fts := false; fsfx := None |}.
Definition exd_c2 : config := exd_cfg exd_sp2 false (CAge ADay) (Some 100%nat).
Definition exd_ops2 : list op := [OWrite (bs "x"); OTick 90000; OWrite (bs "y"); OWrite (bs "z")].
Example direct_age_dir :
  snap_of (fst (run (sys0 0 0) (OStart exd_c2 :: exd_ops2 ++ [OStop])))
  = [ (bs "srv_a1_r00000", 0%N, bs "x"); (bs "srv_a1_r00001", 0%N, bs "yz") ].
Proof. vm_compute. reflexivity. Qed.
Example direct_age_instance :
  exists files,
    direct_view exd_c2 (wfs (s_w (fst (run (sys0 0 0) (OStart exd_c2 :: exd_ops2 ++ [OStop]))))) files
    /\ concat files = bs "xyz".
Proof. apply (numbersdirect_stream exd_c2 (CAge ADay) 0 0 exd_ops2); [apply exd_cfg_ok; reflexivity | repeat constructor]. Qed.
