(* Numbers naming with a cleanup strategy: sequences of runs on one directory (C06 with cleanup), part 2: any number of
   runs, the theorems numbers_cleanup_restarts (shape of the final directory, the stream), numbers_cleanup_restarts_properties
   (spelled out name by name), numbers_cleanup_restarts_keep (a later run never changes what an earlier run closed) and
   numbers_cleanup_restarts_keep_files (the same file by file). *)
Require Import FL.Base.Bytes FL.Fs.Fs FL.Fs.FsFacts FL.Names.FileSpec FL.Flw.Model FL.Flw.NumInv FL.Flw.Run FL.Flw.NumRun
  FL.Flw.NumTheorems FL.Flw.NumCleanupNames FL.Flw.NumCleanupStep FL.Flw.NumCleanupRun FL.Flw.NumCleanup
  FL.Flw.NumRestart FL.Flw.NumCleanupKillDir FL.Flw.NumCleanupKillRestart FL.Flw.NumCleanupRestart.
From Coq Require Import Lia.
Open Scope nat_scope.

(* ------------------------------------------------------------------ sequences of runs *)
Definition krun_ok (sp : file_spec) (k : cleanup) (r : config * list op) : Prop :=
  c_spec (fst r) = sp /\ (exists crit, numkcfg (fst r) crit k) /\ Forall basic_op (snd r).

Lemma runs_rel_k sp k n m : klim k = Some (n, m) -> sfx_ok sp ->
  forall rs x v c0, c_spec c0 = sp -> Forall (krun_ok sp k) rs -> IdleR c0 k x v ->
  (N.of_nat (length (closed_of v) + length (runs_ops rs)) <= u32_max)%N ->
  exists v', IdleR c0 k (fst (run x (runs_ops rs))) v' /\ flat v' = flat v ++ runs_written rs /\ extends v v'
    /\ length (closed_of v') <= length (closed_of v) + length (runs_ops rs).
Proof.
  intros Hk Hsfx. induction rs as [|[c ops] r IH]; intros x v c0 Ec0 Hrs Id Hb.
  - exists v. split; [exact Id|]. cbn [runs_written runs_ops length]. rewrite app_nil_r.
    split; [reflexivity|]. split; [apply extends_refl | lia].
  - inversion Hrs as [|r0 r' [Ec [[crit Hcfg] Hops]] Hr]; subst. cbn [fst snd] in *.
    rewrite runs_ops_cons in *.
    assert (Esp : c_spec c0 = c_spec c) by congruence.
    assert (Hb1 : (N.of_nat (length (closed_of v)) <= u32_max)%N) by lia.
    assert (Hsfx' : sfx_ok (c_spec c)) by (rewrite <- Esp; exact Hsfx).
    destruct (one_run_r c crit k n m Hcfg Hk Hsfx' x v ops Hb1 Hops (idler_spec c0 c k x v Esp Id)) as [v1 [Id1 [F1 [P1 [X1 _]]]]].
    rewrite run_app. destruct (run x (OStart c :: ops ++ [OStop])) as [x1 obs1]. cbn [fst] in Id1.
    assert (Hb2 : (N.of_nat (length (closed_of v1) + length (runs_ops r)) <= u32_max)%N).
    { rewrite app_length in Hb. cbn [length] in Hb. rewrite app_length in Hb. cbn [length] in Hb. lia. }
    destruct (IH x1 v1 c0 eq_refl Hr (idler_spec c c0 k x1 v1 (eq_sym Esp) Id1) Hb2) as [v2 [Id2 [F2 [X2 P2]]]].
    destruct (run x1 (runs_ops r)) as [x2 obs2]. cbn [fst] in *.
    exists v2. split; [exact Id2|]. split; [rewrite F2, F1; cbn [runs_written]; rewrite app_assoc; reflexivity|].
    split; [exact (extends_trans _ _ _ X1 X2)|].
    rewrite app_length. cbn [length]. rewrite app_length. cbn [length]. lia.
Qed.

Lemma idler0 c k t0 off : IdleR c k (sys0 t0 off) None.
Proof. cbn. repeat split. Qed.

Lemma idler_view sp k n m c0 x v : klim k = Some (n, m) -> c_spec c0 = sp -> IdleR c0 k x v ->
  match v with
  | None => names (wfs (s_w x)) = []
  | Some (cl, cu) => forall c, c_spec c = sp -> kreader_view c (wfs (s_w x)) cl cu (length cl - (n + m)) (length cl - n)
  end.
Proof.
  intros Hk E0 (_ & _ & _ & _ & D). destruct v as [[cl cu]|]; cbn [kdir_view] in D; [|tauto].
  intros c Ec. destruct D as [_ V]. unfold k_lo, k_mid in V. rewrite Hk in V.
  apply (kreader_view_spec c0 c); [congruence | exact V].
Qed.

(* ------------------------------------------------------------------ the final directory *)
(* Any number of runs on one directory, each with its own criterion, buffer capacity, append flag and history; the same
   file specification and the same cleanup strategy (limits n: plain files, m: archives) in all runs.  After the last
   run the directory is empty (nothing was written), or it holds exactly: rCURRENT (plain), the plain files r<i> for
   L - n <= i < L and the complete archives r<i>.gz for L - (n+m) <= i < L - n, where closed (of length L) is the list
   of everything that was closed, in the order of closing, and cur the current file: every survivor holds exactly what
   was closed under its number, min(L, n+m) closed files survive, and concat closed ++ cur is what all runs wrote - so the
   survivors, read by index, then rCURRENT, are a SUFFIX of it (numbers_cleanup_restarts_properties).
   Side conditions: the suffix does not end with .gz (as numbers_cleanup_stream), less than 2^32 operations
   (as numbers_restarts_partial: the index read back from a file name is a u32).
   (With n + m = 0 no closed file survives and the numbering starts again at 0 in every run; `closed` is then only the
   bookkeeping of what was closed - see index_restarts_at_0.) *)
Theorem numbers_cleanup_restarts sp k n m t0 off rs :
  klim k = Some (n, m) -> sfx_ok sp ->
  (N.of_nat (length (runs_ops rs)) <= u32_max)%N ->
  Forall (fun r => c_spec (fst r) = sp /\ (exists crit, numkcfg (fst r) crit k) /\ Forall basic_op (snd r)) rs ->
  let f := wfs (s_w (fst (run (sys0 t0 off) (runs_ops rs)))) in
  (names f = [] /\ runs_written rs = [])
  \/ exists closed cur,
       (forall c, c_spec c = sp -> kreader_view c f closed cur (length closed - (n + m)) (length closed - n))
       /\ concat closed ++ cur = runs_written rs.
Proof.
  intros Hk Hsfx Hb Hrs f.
  destruct (runs_rel_k sp k n m Hk Hsfx rs (sys0 t0 off) None (sp_config sp) eq_refl Hrs (idler0 _ k t0 off) Hb) as [v' [Id [F _]]].
  pose proof (idler_view sp k n m (sp_config sp) _ v' Hk eq_refl Id) as V. fold f in V.
  destruct v' as [[cl cu]|].
  - right. exists cl, cu. split; [exact V|]. cbn [flat app] in F. exact F.
  - left. split; [exact V|]. cbn [flat app] in F. symmetry. exact F.
Qed.
Print Assumptions numbers_cleanup_restarts.

(* ------------------------------------------------------------------ the shape, name by name *)
Lemma kview_gone c f cl cu lo mid i : kreader_view c f cl cu lo mid -> i < lo \/ length cl <= i ->
  lookup f (rname c i) = None /\ lookup f (gname c i) = None.
Proof.
  intros [[Hle _ _ _ Hon] _] Hi. split.
  - destruct (lookup f (rname c i)) as [j|] eqn:E; [exfalso | reflexivity].
    destruct (Hon _ _ E) as [X|[(i' & Hi' & X)|(i' & Hi' & X)]].
    + exact (rname_not_cname _ _ X).
    + apply rname_inj in X. lia.
    + symmetry in X. exact (gname_ne_rname _ _ _ X).
  - destruct (lookup f (gname c i)) as [j|] eqn:E; [exfalso | reflexivity].
    destruct (Hon _ _ E) as [X|[(i' & Hi' & X)|(i' & Hi' & X)]].
    + exact (gname_not_cname _ _ X).
    + exact (gname_ne_rname _ _ _ X).
    + apply gname_inj in X. lia.
Qed.


Lemma kview_properties c f closed cur lo mid :
  sfx_ok (c_spec c) -> kreader_view c f closed cur lo mid ->
  let L := length closed in
  lo <= mid <= L
  /\ (forall x, (exists j, lookup f x = Some j) <->
        x = cname c \/ (exists i, mid <= i < L /\ x = rname c i) \/ (exists i, lo <= i < mid /\ x = gname c i))
  /\ NoDup (dir_names f)
  /\ (forall off', list_log_gz off' (c_spec c) (fixed0 c) f IFNum = Some (listing c lo mid L))
  /\ (forall i, mid <= i < L -> lookup f (gname c i) = None /\
        exists fl, file_of f (rname c i) = Some fl /\ fdata fl = nth i closed [] /\ fgz fl = 0%N /\ fdir fl = false)
  /\ (forall i, lo <= i < mid -> lookup f (rname c i) = None /\
        exists fl, file_of f (gname c i) = Some fl /\ fdata fl = nth i closed [] /\ fgz fl = 1%N /\ fdir fl = false)
  /\ (forall i, i < lo \/ L <= i -> lookup f (rname c i) = None /\ lookup f (gname c i) = None)
  /\ concat (map (fun i => data_at f (entry c mid i)) (seq lo (L - lo))) = concat (skipn lo closed)
  /\ (exists fl, file_of f (cname c) = Some fl /\ fdata fl = cur /\ fgz fl = 0%N /\ fdir fl = false).
Proof.
  intros Hsfx V L. pose proof V as [KD (jc & Lc & [Gc Dc] & Cc)]. pose proof (kd_le _ _ _ _ _ KD) as Hle. fold L in Hle.
  destruct (kdir_by_index _ _ _ _ _ KD) as (Pl & Ar & _ & Data). fold L in Pl, Data.
  split; [exact Hle|]. split; [exact (kview_names _ _ _ _ _ _ V)|]. split; [exact (kd_nodup _ _ _ _ _ KD)|].
  split. { intros off'. apply list_log_gz_numbers; [exact Hsfx | apply kdir_shape; exact KD]. }
  split; [exact Pl|]. split; [exact Ar|].
  split; [intros i Hi; exact (kview_gone c f closed cur lo mid i V Hi)|].
  split. { rewrite (map_seq_skipn (fun i => data_at f (entry c mid i)) closed [] (L - lo) lo); [reflexivity | unfold L; lia | exact Data]. }
  exists (inode f jc). rewrite (file_of_lookup _ _ _ Lc). auto.
Qed.

(* n = number of log files kept as they are, m = number of files kept as archives; closed: everything that was closed,
   in the order of closing; cur: the current file *)
Theorem numbers_cleanup_restarts_properties sp k n m t0 off rs c :
  klim k = Some (n, m) -> sfx_ok sp ->
  (N.of_nat (length (runs_ops rs)) <= u32_max)%N ->
  Forall (fun r => c_spec (fst r) = sp /\ (exists crit, numkcfg (fst r) crit k) /\ Forall basic_op (snd r)) rs ->
  c_spec c = sp ->
  let f := wfs (s_w (fst (run (sys0 t0 off) (runs_ops rs)))) in
  (names f = [] /\ runs_written rs = [])
  \/ exists closed cur,
    let L := length closed in let lo := L - (n + m) in let mid := L - n in
    (* what was written *)
    concat closed ++ cur = runs_written rs
    (* exactly these names exist, each once *)
    /\ (forall x, (exists j, lookup f x = Some j) <->
          x = cname c \/ (exists i, mid <= i < L /\ x = rname c i) \/ (exists i, lo <= i < mid /\ x = gname c i))
    /\ NoDup (dir_names f)
    (* the limits are respected and used: min(L, n) plain files, min(L - n, m) archives, min(L, n + m) closed files survive *)
    /\ L - mid = Nat.min L n /\ mid - lo = Nat.min (L - n) m /\ L - lo = Nat.min L (n + m)
    (* the next cleanup would see them like this *)
    /\ (forall off', list_log_gz off' (c_spec c) (fixed0 c) f IFNum = Some (listing c lo mid L))
    (* the newest n closed files are there as they were closed *)
    /\ (forall i, mid <= i < L -> lookup f (gname c i) = None /\
          exists fl, file_of f (rname c i) = Some fl /\ fdata fl = nth i closed [] /\ fgz fl = 0%N /\ fdir fl = false)
    (* the next m are complete archives of what the file held when it was closed; the original is gone *)
    /\ (forall i, lo <= i < mid -> lookup f (rname c i) = None /\
          exists fl, file_of f (gname c i) = Some fl /\ fdata fl = nth i closed [] /\ fgz fl = 1%N /\ fdir fl = false)
    (* older files are gone, no higher number is in use *)
    /\ (forall i, i < lo \/ L <= i -> lookup f (rname c i) = None /\ lookup f (gname c i) = None)
    (* the survivors, read by index, then rCURRENT: a suffix of what all runs wrote *)
    /\ runs_written rs = concat (firstn lo closed)
                         ++ concat (map (fun i => data_at f (entry c mid i)) (seq lo (L - lo))) ++ data_at f (cname c)
    (* the current file is plain *)
    /\ (exists fl, file_of f (cname c) = Some fl /\ fdata fl = cur /\ fgz fl = 0%N /\ fdir fl = false).
Proof.
  intros Hk Hsfx Hb Hrs Ec f.
  destruct (numbers_cleanup_restarts sp k n m t0 off rs Hk Hsfx Hb Hrs) as [E|(closed & cur & V & Fl)]; [left; exact E|].
  right. exists closed, cur. intros L lo mid. fold f in V. specialize (V c Ec). fold L lo mid in V.
  assert (Hsfx' : sfx_ok (c_spec c)) by (rewrite Ec; exact Hsfx).
  destruct (kview_properties c f closed cur lo mid Hsfx' V) as (Hle & Names & Nd & Li & Pl & Ar & Go & St & Cu).
  fold L in Hle, Names, Li, Pl, Go, St.
  split; [exact Fl|]. split; [exact Names|]. split; [exact Nd|].
  split; [unfold mid; lia|]. split; [unfold lo, mid; lia|]. split; [unfold lo; lia|].
  split; [exact Li|]. split; [exact Pl|]. split; [exact Ar|]. split; [exact Go|].
  split; [|exact Cu].
  destruct Cu as (fl & Ff & Df & _).
  assert (Ecu : data_at f (cname c) = cur) by (unfold data_at; rewrite Ff; exact Df).
  rewrite Ecu. transitivity (concat (firstn lo closed) ++ concat (skipn lo closed) ++ cur).
  - rewrite app_assoc, <- concat_app, firstn_skipn. symmetry. exact Fl.
  - f_equal. f_equal. symmetry. exact St.
Qed.
Print Assumptions numbers_cleanup_restarts_properties.

(* ------------------------------------------------------------------ later runs keep what earlier runs closed *)
(* Whatever further runs follow: the list of what was closed only grows (closed2 = closed1 ++ ...; with n + m > 0 the
   position in it is the number in the file name), the file that was the current one is continued and then closed under
   the next number (or is still the current one); since both directories show these lists through the window of the
   same limits, every file or archive that survives still holds what was closed under its number
   (numbers_cleanup_restarts_keep_files). *)
Theorem numbers_cleanup_restarts_keep sp k n m t0 off rs1 rs2 :
  klim k = Some (n, m) -> sfx_ok sp ->
  (N.of_nat (length (runs_ops (rs1 ++ rs2))) <= u32_max)%N ->
  Forall (fun r => c_spec (fst r) = sp /\ (exists crit, numkcfg (fst r) crit k) /\ Forall basic_op (snd r)) (rs1 ++ rs2) ->
  let f1 := wfs (s_w (fst (run (sys0 t0 off) (runs_ops rs1)))) in
  let f2 := wfs (s_w (fst (run (sys0 t0 off) (runs_ops (rs1 ++ rs2))))) in
  (names f1 = [] /\ runs_written rs1 = [])
  \/ exists closed1 cur1 closed2 cur2 t more,
       (forall c, c_spec c = sp -> kreader_view c f1 closed1 cur1 (length closed1 - (n + m)) (length closed1 - n))
       /\ concat closed1 ++ cur1 = runs_written rs1
       /\ (forall c, c_spec c = sp -> kreader_view c f2 closed2 cur2 (length closed2 - (n + m)) (length closed2 - n))
       /\ concat closed2 ++ cur2 = runs_written (rs1 ++ rs2)
       /\ closed2 ++ [cur2] = closed1 ++ [cur1 ++ t] ++ more.
Proof.
  intros Hk Hsfx Hb Hrs f1 f2. apply Forall_app in Hrs. destruct Hrs as [Hrs1 Hrs2].
  rewrite runs_ops_app, app_length in Hb.
  assert (Hb1 : (N.of_nat (length (closed_of None) + length (runs_ops rs1)) <= u32_max)%N) by (cbn [closed_of length]; lia).
  destruct (runs_rel_k sp k n m Hk Hsfx rs1 (sys0 t0 off) None (sp_config sp) eq_refl Hrs1 (idler0 _ k t0 off) Hb1) as [v1 [Id1 [F1 [_ P1]]]].
  unfold f1, f2. rewrite runs_ops_app, run_app. destruct (run (sys0 t0 off) (runs_ops rs1)) as [x1 obs1]. cbn [fst] in *.
  assert (Hb2 : (N.of_nat (length (closed_of v1) + length (runs_ops rs2)) <= u32_max)%N) by (cbn [closed_of length] in P1; lia).
  destruct (runs_rel_k sp k n m Hk Hsfx rs2 x1 v1 (sp_config sp) eq_refl Hrs2 Id1 Hb2) as [v2 [Id2 [F2 [X2 _]]]].
  destruct (run x1 (runs_ops rs2)) as [x2 obs2]. cbn [fst] in *.
  pose proof (idler_view sp k n m (sp_config sp) _ v1 Hk eq_refl Id1) as V1. pose proof (idler_view sp k n m (sp_config sp) _ v2 Hk eq_refl Id2) as V2.
  destruct v1 as [[cl1 cu1]|].
  - right. cbn [extends] in X2. destruct X2 as [t [more E]].
    destruct v2 as [[cl2 cu2]|]; [|cbn [files_of] in E; destruct cl1; discriminate].
    exists cl1, cu1, cl2, cu2, t, more. cbn [flat app files_of] in *.
    split; [exact V1|]. split; [exact F1|]. split; [exact V2|]. split; [rewrite F2, F1, runs_written_app; reflexivity | exact E].
  - left. split; [exact V1|]. cbn [flat app] in F1. symmetry. exact F1.
Qed.
Print Assumptions numbers_cleanup_restarts_keep.

(* ------------------------------------------------------------------ file by file *)
(* reads_at c f i d (NumCleanupKillDir.v): the reader finds d under the number i - in the plain file r<i>, or, when there
   is no plain file, in the complete archive r<i>.gz *)
Lemma reads_at_fun c f i d d' : reads_at c f i d -> reads_at c f i d' -> d = d'.
Proof.
  unfold reads_at. destruct (file_of f (rname c i)) as [fl|].
  - intros [(_ & _ & E1) _] [(_ & _ & E2) _]. congruence.
  - intros (g & E1 & _ & _ & D1) (g' & E2 & _ & _ & D2). congruence.
Qed.

Lemma kview_reads_in c f cl cu lo mid i : kreader_view c f cl cu lo mid -> lo <= i < length cl -> reads_at c f i (nth i cl []).
Proof.
  intros [KD Hc] Hi.
  destruct (xdir_kill_view c f cl (Some cu) lo mid None (kdir_xdir c f cl lo mid (Some cu) KD Hc)) as (_ & R & _).
  apply R. exact Hi.
Qed.

Lemma kview_no_plain c f cl cu lo mid i : kreader_view c f cl cu lo mid -> i < mid -> lookup f (rname c i) = None.
Proof.
  intros [[Hle _ _ _ Hon] _] Hi. destruct (lookup f (rname c i)) as [j|] eqn:E; [exfalso | reflexivity].
  destruct (Hon _ _ E) as [X|[(i' & Hi' & X)|(i' & Hi' & X)]].
  - exact (rname_not_cname _ _ X).
  - apply rname_inj in X. lia.
  - symmetry in X. exact (gname_ne_rname _ _ _ X).
Qed.

Lemma kview_reads_at c f cl cu lo mid i d : kreader_view c f cl cu lo mid -> reads_at c f i d ->
  lo <= i < length cl /\ d = nth i cl [].
Proof.
  intros V R. destruct (Nat.le_gt_cases lo i) as [H1|H1]; [destruct (Nat.lt_ge_cases i (length cl)) as [H2|H2]|].
  - split; [lia|]. exact (reads_at_fun c f i _ _ R (kview_reads_in c f cl cu lo mid i V ltac:(lia))).
  - exfalso. destruct (kview_gone c f cl cu lo mid i V ltac:(lia)) as [G1 G2]. unfold reads_at, file_of in R. rewrite G1, G2 in R.
    destruct R as (g & E & _). discriminate.
  - exfalso. destruct (kview_gone c f cl cu lo mid i V ltac:(lia)) as [G1 G2]. unfold reads_at, file_of in R. rewrite G1, G2 in R.
    destruct R as (g & E & _). discriminate.
Qed.

(* two directories that show lists of closed files, the second an extension of the first, through windows of which the
   second has not moved back: what the reader finds under a number in the first it finds under the same number in the
   second - unless it is gone; a file that has become an archive does not come back as a plain file *)
Lemma kview_keep_files c f1 f2 cl1 cu1 lo1 mid1 cl2 cu2 lo2 mid2 t more i d :
  kreader_view c f1 cl1 cu1 lo1 mid1 -> kreader_view c f2 cl2 cu2 lo2 mid2 ->
  cl2 ++ [cu2] = cl1 ++ [cu1 ++ t] ++ more -> (length cl1 <= length cl2 -> mid1 <= mid2) ->
  reads_at c f1 i d ->
  (reads_at c f2 i d /\ (lookup f1 (rname c i) = None -> lookup f2 (rname c i) = None))
  \/ (lookup f2 (rname c i) = None /\ lookup f2 (gname c i) = None).
Proof.
  intros V1 V2 E Hmid R.
  destruct (kview_reads_at c f1 cl1 cu1 _ _ i d V1 R) as [Hi Ed].
  assert (HL : length cl1 <= length cl2).
  { apply (f_equal (@length bytes)) in E. rewrite !app_length in E. cbn [length] in E. lia. }
  specialize (Hmid HL).
  assert (En : nth i cl2 [] = nth i cl1 []).
  { apply (f_equal (fun l => nth i l [])) in E. rewrite app_nth1 in E by lia. rewrite app_nth1 in E by lia. exact E. }
  destruct (Nat.le_gt_cases lo2 i) as [H2|H2].
  - left. split.
    + rewrite Ed, <- En. apply (kview_reads_in c f2 cl2 cu2 _ _ i V2). lia.
    + intros N1. apply (kview_no_plain c f2 cl2 cu2 _ _ i V2).
      destruct (Nat.lt_ge_cases i mid1) as [H3|H3]; [lia|]. exfalso.
      destruct V1 as [[_ _ Hp _ _] _]. destruct (Hp i ltac:(lia)) as (j & Lj & _). congruence.
  - right. apply (kview_gone c f2 cl2 cu2 _ _ i V2). left. exact H2.
Qed.

(* Whatever the reader finds under a number i after the first runs, it finds under the same number after all runs - as
   long as the cleanup has not removed it; a file that has become an archive does not come back as a plain file. *)
Theorem numbers_cleanup_restarts_keep_files sp k n m t0 off rs1 rs2 c i d :
  klim k = Some (n, m) -> sfx_ok sp ->
  (N.of_nat (length (runs_ops (rs1 ++ rs2))) <= u32_max)%N ->
  Forall (fun r => c_spec (fst r) = sp /\ (exists crit, numkcfg (fst r) crit k) /\ Forall basic_op (snd r)) (rs1 ++ rs2) ->
  c_spec c = sp ->
  let f1 := wfs (s_w (fst (run (sys0 t0 off) (runs_ops rs1)))) in
  let f2 := wfs (s_w (fst (run (sys0 t0 off) (runs_ops (rs1 ++ rs2))))) in
  reads_at c f1 i d ->
  (reads_at c f2 i d /\ (lookup f1 (rname c i) = None -> lookup f2 (rname c i) = None))
  \/ (lookup f2 (rname c i) = None /\ lookup f2 (gname c i) = None).
Proof.
  intros Hk Hsfx Hb Hrs Ec f1 f2 R.
  pose proof (numbers_cleanup_restarts_keep sp k n m t0 off rs1 rs2 Hk Hsfx Hb Hrs) as T. cbv zeta in T. fold f1 f2 in T.
  destruct T as [[Hn _]|(cl1 & cu1 & cl2 & cu2 & t & more & V1 & _ & V2 & _ & E)].
  - exfalso. unfold reads_at, file_of in R. rewrite !(lookup_empty f1) in R by exact Hn. destruct R as (g & X & _). discriminate.
  - apply (kview_keep_files c f1 f2 cl1 cu1 _ _ cl2 cu2 _ _ t more i d (V1 c Ec) (V2 c Ec) E); [lia | exact R].
Qed.
Print Assumptions numbers_cleanup_restarts_keep_files.

(* ------------------------------------------------------------------ a run without a write *)
(* A run that is started and stopped without a record (flushes, ticks, even OTrigger) does not look at the directory:
   no rotation of the rCURRENT that it finds, no cleanup - the directory is the same file system as before. *)
Theorem numbers_cleanup_run_without_write sp k n m t0 off rs c crit ops :
  klim k = Some (n, m) -> sfx_ok sp ->
  (N.of_nat (length (runs_ops rs)) <= u32_max)%N ->
  Forall (fun r => c_spec (fst r) = sp /\ (exists crit, numkcfg (fst r) crit k) /\ Forall basic_op (snd r)) rs ->
  c_spec c = sp -> numkcfg c crit k -> Forall basic_op ops -> existsb is_wr ops = false ->
  wfs (s_w (fst (run (sys0 t0 off) (runs_ops (rs ++ [(c, ops)]))))) = wfs (s_w (fst (run (sys0 t0 off) (runs_ops rs)))).
Proof.
  intros Hk Hsfx Hb Hrs Ec Hcfg Hops Hw.
  destruct (runs_rel_k sp k n m Hk Hsfx rs (sys0 t0 off) None c Ec Hrs (idler0 _ k t0 off) Hb) as [v [Id [_ [_ P]]]].
  cbn [closed_of length] in P.
  assert (Hsfx' : sfx_ok (c_spec c)) by (rewrite Ec; exact Hsfx).
  destruct (one_run_r c crit k n m Hcfg Hk Hsfx' _ v ops ltac:(lia) Hops Id) as (v' & _ & _ & _ & _ & U).
  destruct (U Hw) as [_ E].
  rewrite runs_ops_app, run_app. cbn [runs_ops app].
  destruct (run (sys0 t0 off) (runs_ops rs)) as [x1 obs1]. cbn [fst] in *.
  destruct (run x1 (OStart c :: ops ++ [OStop])) as [x2 obs2]. cbn [fst] in *. exact E.
Qed.
Print Assumptions numbers_cleanup_run_without_write.
