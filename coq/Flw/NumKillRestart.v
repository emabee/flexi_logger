(* Numbers naming: a new writer on the directory that a KILLED writer left behind.  The directory may lack the current
   file (kill between the rename of rCURRENT and the creation of the new one), or hold a freshly created empty one.
   The new writer starts cleanly, loses nothing and overwrites nothing.
   Introduced here and used by the other kill-and-restart files: obs_ok (an observation without error result), and,
   for a numbered layout with a restart_layout (Section RunOk), that every operation of a run succeeds (lone_run_ok). *)
Require Import FL.Base.Bytes FL.Base.BytesFacts FL.Base.PathName FL.Fs.Fs FL.Fs.FsFacts FL.Time.TsFormat
  FL.Names.FileSpec FL.Names.FamilyFacts FL.Flw.Model FL.Flw.ModelFacts FL.Flw.NumFs FL.Flw.NumInv
  FL.Flw.Run FL.Flw.NumRun FL.Flw.NumListing FL.Flw.NumTheorems FL.Flw.NumRestart
  FL.Flw.KillFacts FL.Flw.NumKill.
From Coq Require Import ZifyN ZifyNat ZifyBool.
Import String.StringSyntax.
Open Scope nat_scope.

(* ------------------------------------------------------------------ the listing does not need the current file *)
Lemma highest_index_view_opt c off f cl ocu :
  reader_view_opt c f cl ocu ->
  (N.of_nat (length cl) <= u32_max)%N ->
  get_highest_index off (c_spec c) (fixed0 c) f = Some (match length cl with O => None | S k => Some (N.of_nat k) end).
Proof.
  intros [Hcl [Hcur Hon]] Hb. apply highest_index_numbered; [|exact Hon | lia].
  intros i Hi. destruct (Hcl i Hi) as [j [Lj [[_ Pd] _]]]. eauto.
Qed.

Lemma listing_view_opt c w cl ocu : fts (c_spec c) = false -> quiet w ->
  reader_view_opt c (wfs w) cl ocu -> (N.of_nat (length cl) <= u32_max)%N ->
  with_listing w (fun w' =>
     match get_highest_index (woff w') (c_spec c) (fixed_of c w') (wfs w') with
     | None => None
     | Some (Some i) => Some (i + 1)%N
     | Some None => Some 0%N
     end) = (Ok (N.of_nat (length cl)), w).
Proof.
  intros Hts Q R Hb. unfold with_listing. rewrite tick_quiet by assumption.
  rewrite fixed_of_fixed0 by assumption. rewrite (highest_index_view_opt c (woff w) (wfs w) cl ocu R Hb).
  destruct (length cl) as [|k]; [reflexivity|]. do 2 f_equal. lia.
Qed.

(* ------------------------------------------------------------------ the first write on a directory without rCURRENT *)
(* index_for_rcurrent tolerates NotFound on the rename: without a current file the rotate flag changes nothing *)
Lemma index_for_rcurrent_nocur c w rot idx : quiet w -> lookup (wfs w) (name_of c w (Some cur_infix)) = None ->
  index_for_rcurrent c w None false = (Ok idx, w) -> index_for_rcurrent c w None rot = (Ok idx, w).
Proof.
  intros Q Hn E. destruct rot; [|exact E]. unfold index_for_rcurrent in *.
  destruct (with_listing w _) as [[i| |] w0]; [|discriminate..]. injection E as -> ->.
  pose proof (p_rename_quiet w (name_of c w (Some cur_infix)) (name_of c w (Some (number_infix idx))) Q) as PR.
  rewrite rename_none in PR by exact Hn. rewrite PR. reflexivity.
Qed.

(* the index is the number of closed files, a new current file is created *)
Lemma initialize_nocur c crit w cl :
  numcfg c crit -> quiet w -> fs_wf (wfs w) -> reader_view_opt c (wfs w) cl None ->
  (N.of_nat (length cl) <= u32_max)%N ->
  exists w' wr roll,
    initialize c w = (Ok (Active (Some (mk_rs (NSNumR (N.of_nat (length cl))) roll)) wr (cname c)), w')
    /\ NumInv c w' wr cl /\ cur_view w' wr = [] /\ roll_size_ok roll 0 /\ same_env w w'
    /\ (forall m, crit = CSize m -> exists k, roll = RSize m k).
Proof.
  intros [Hrot [Hts [Hlink _]]] Q W R Hb. pose proof R as [Hcl [Hnc Hon]].
  assert (Hnm : name_of c w (Some cur_infix) = cname c) by (apply name_of_fixed; exact Hts).
  pose proof (create_file_spec (wfs w) (cname c) 0%N (wnow w)) as CS.
  pose proof (wf_create (wfs w) (cname c) 0%N (wnow w) W Hnc) as W2.
  pose proof (open_log_file_fresh c w (Some cur_infix) Q Hlink) as Eop. rewrite Hnm in Eop. specialize (Eop Hnc).
  destruct (create_file (wfs w) (cname c) 0%N (wnow w)) as [f2 new] eqn:Ecf. cbn [fst snd] in *.
  destruct CS as [Enew [Hino [Lc Lo]]]. rewrite <- Enew in Eop.
  assert (Inew : inode f2 new = fresh_file (wnow w)).
  { unfold inode. rewrite Hino, Enew, inode_app_new. reflexivity. }
  assert (Iold : forall j, j < length (inodes (wfs w)) -> inode f2 j = inode (wfs w) j).
  { intros j Hj. unfold inode. rewrite Hino, inode_app_old by assumption. reflexivity. }
  assert (Fo : file_of f2 (cname c) = Some (fresh_file (wnow w))).
  { unfold file_of. rewrite Lc, Inew. reflexivity. }
  pose proof (quiet_set_fs w f2 Q) as Q2.
  set (wr := {| wino := new; wpend := []; wcap := c_cap c |}) in *.
  eexists (set_fs w f2), wr, _.
  split.
  { apply (initialize_steps c w crit NNumbers KNever (NSNumR (N.of_nat (length cl))) cur_infix w wr (cname c) (set_fs w f2)
             _ (set_fs w f2) (set_fs w f2) Hrot).
    - unfold init_naming. rewrite (index_for_rcurrent_nocur c w _ (N.of_nat (length cl)) Q); [reflexivity | rewrite Hnm; exact Hnc|].
      unfold index_for_rcurrent. rewrite (listing_view_opt c w cl None Hts Q R Hb). reflexivity.
    - exact Eop.
    - exact (roll_new_quiet (set_fs w f2) crit (c_append c) (cname c) _ Q2 Fo).
    - reflexivity. }
  split.
  { constructor; cbn [set_fs wfs].
    - exact Q2.
    - exact W2.
    - exact Lc.
    - cbn [wr wino]. rewrite Inew. split; reflexivity.
    - intros i Hi. destruct (Hcl i Hi) as [j [Lj [Pj Cj]]]. exists j.
      rewrite Lo by apply rname_not_cname. split; [exact Lj|].
      pose proof (wf_bound _ W _ _ Lj) as Hj. unfold content. rewrite Iold by exact Hj. split; [exact Pj | exact Cj].
    - intros n j Hn.
      destruct (beq_spec n (cname c)) as [->|Hne]; [left; reflexivity|].
      rewrite Lo in Hn by exact Hne. exact (Hon n j Hn).
    - apply wr_ok_nil.
    - reflexivity. }
  split. { unfold cur_view. cbn [wr wino wpend set_fs wfs]. unfold content. rewrite Inew. reflexivity. }
  split; [destruct (c_append c); exact (roll_of_size crit 0 _)|]. split; [apply same_env_set_fs; exact Q|].
  intros m ->. cbn [roll_of]. eauto.
Qed.

(* ------------------------------------------------------------------ a writer that has not written yet *)
Definition PreO (c : config) (x : sys) (v : oview) : Prop :=
  s_tl x = [] /\ wacts (s_w x) = 0 /\ s_flw x = Some (new_flw c) /\ quiet (s_w x) /\ fs_wf (wfs (s_w x))
  /\ reader_view_opt c (wfs (s_w x)) (fst v) (snd v).

(* what the writer makes of the directory it finds, before anything is written *)
Definition init_view_o (c : config) (v : oview) : list bytes * bytes :=
  match snd v with
  | Some cu => if c_append c then (fst v, cu) else (fst v ++ [cu], [])
  | None => (fst v, [])
  end.

Lemma init_view_o_flat c v : flat (Some (init_view_o c v)) = oflat v.
Proof.
  destruct v as [cl [cu|]]; unfold init_view_o, oflat; cbn [fst snd flat]; [|reflexivity].
  destruct (c_append c); [reflexivity|]. rewrite concat_app. cbn [concat]. rewrite !app_nil_r. reflexivity.
Qed.

Lemma first_write_o c crit x v b :
  numcfg c crit -> (N.of_nat (length (fst v)) <= u32_max)%N -> PreO c x v ->
  exists w' s' rot,
    write_buffer (new_flw c) (s_w x) b = (Ok tt, w', s', rot)
    /\ Rel c crit {| s_flw := Some s'; s_w := w'; s_tl := []; s_dead := s_dead x |}
           (a_step (Some (init_view_o c v)) (OWrite b) rot).
Proof.
  intros Hcfg Hb [Ht [Ha [Es [Q [W R]]]]]. destruct v as [cl [cu|]]; cbn [fst snd] in *.
  - (* the current file is there: the restart of a stopped run *)
    assert (P : Pre c x (Some (cl, cu))).
    { split; [exact Ht|]. split; [exact Ha|]. split; [exact Es|]. split; [exact Q|]. split; [exact W|].
      apply reader_view_opt_some. exact R. }
    exact (first_write c crit x (Some (cl, cu)) b Hcfg Hb P).
  - destruct (initialize_nocur c crit (s_w x) cl Hcfg Q W R Hb) as [w1 [wr [roll [Ei [I [V [Z [S1 RS]]]]]]]].
    assert (Z0 : roll_size_ok roll (length (cur_view w1 wr))) by (rewrite V; exact Z).
    destruct (write_active c crit w1 wr cl roll b Hcfg I Z0) as [w' [wr' [roll' [closed' [E [I' [Z' [S' [V' R']]]]]]]]].
    exists w', (st_of c (length closed') roll' wr'), (rotation_necessary w1 roll).
    split. { rewrite (write_buffer_init c (s_w x) b _ _ _ w1 Ei). exact E. }
    split; [reflexivity|]. split; [cbn [s_w]; exact (same_env_acts _ _ (same_env_trans _ _ _ S1 S') Ha)|].
    unfold init_view_o. cbn [fst snd a_step]. rewrite V in V'.
    destruct (rotation_necessary w1 roll); injection V' as <- V''; (exists wr', roll'; cbn [s_flw s_w];
      split; [reflexivity|]; split; [exact I'|]; split; [exact V''|]; split; [rewrite <- V''; exact Z'|];
      exact (rsize_kept _ _ _ RS R')).
Qed.

(* ------------------------------------------------------------------ one run; every operation succeeds *)
Definition obs_ok (ob : obs) : Prop :=
  match ob with ObsRes code _ => code = 0%N | ObsList code _ => code = 0%N | ObsSnap _ _ _ => True end.

Lemma obs_ok_basic w o rot : basic_op o -> obs_ok (basic_obs w o rot).
Proof. destruct o; try contradiction; intros _; (exact eq_refl || exact Logic.I). Qed.

(* a run of a numbered layout on a directory that a writer left: the observations, read off NumRun.lstep_obs *)
Section RunOk.
Variables (cfgp : config -> criterion -> Prop) (ns : nat -> naming_state) (cur : config -> nat -> bytes)
          (Inv : config -> world -> writer -> list bytes -> Prop).
Hypothesis L : layout cfgp ns cur Inv.
Variables (dview : config -> fs -> aview -> Prop) (rd : config -> fs -> list bytes -> Prop).
Hypothesis RL : restart_layout cfgp ns cur Inv dview rd.

Lemma lstep_ok c crit x a o : cfgp c crit -> LRel ns cur Inv c crit x a -> basic_op o -> obs_ok (snd (step x o)).
Proof.
  intros Hcfg R Hb. destruct (lstep_obs _ _ _ _ L c crit x a o Hcfg R Hb) as [rot ->]. exact (obs_ok_basic _ o rot Hb).
Qed.

Lemma lgstep_ok c crit x v a o :
  cfgp c crit -> (N.of_nat (length (closed_of v)) <= u32_max)%N -> LGRel ns cur Inv dview c crit x v a -> basic_op o ->
  obs_ok (snd (step x o)).
Proof.
  intros Hcfg Hb G Ho. destruct a as [p|]; [exact (lstep_ok c crit x (Some p) o Hcfg G Ho)|].
  cbn [LGRel] in G. rewrite (lpre_sync _ _ _ _ L dview c crit x v o Hcfg G).
  pose proof G as [Ht [Ha [Es [Q D]]]].
  destruct o; try contradiction; cbn [sync_step].
  - destruct (lfirst_write _ _ _ _ L _ _ RL c crit x v (s_tl x ++ b) Hcfg Hb G) as [w' [s' [rot [E _]]]].
    rewrite Es. cbn [new_flw f_poisoned]. fold (new_flw c). rewrite E. reflexivity.
  - destruct (lfirst_write _ _ _ _ L _ _ RL c crit x v b Hcfg Hb G) as [w' [s' [rot [E _]]]].
    rewrite Es. cbn [new_flw f_poisoned]. fold (new_flw c). rewrite E. reflexivity.
  - rewrite Es. reflexivity.
  - rewrite Es. reflexivity.
  - reflexivity.
  - exact Logic.I.
Qed.

Lemma lgrun_ok c crit v : cfgp c crit -> (N.of_nat (length (closed_of v)) <= u32_max)%N ->
  forall ops x a, LGRel ns cur Inv dview c crit x v a -> Forall basic_op ops -> Forall obs_ok (snd (run x ops)).
Proof.
  intros Hcfg Hb. induction ops as [|o r IH]; intros x a G Hbo; [constructor|].
  cbn [run]. inversion Hbo as [|o' r' Ho Hr]; subst.
  pose proof (lgstep_rel _ _ _ _ L _ _ RL c crit x v a o Hcfg Hb G Ho) as S.
  pose proof (lgstep_ok c crit x v a o Hcfg Hb G Ho) as K.
  destruct (step x o) as [x1 ob]. cbn [snd] in K.
  specialize (IH x1 _ S Hr). destruct (run x1 r) as [x2 obs]. cbn [snd] in *. constructor; assumption.
Qed.

Lemma lgstop_ok c crit x v a : cfgp c crit -> LGRel ns cur Inv dview c crit x v a -> obs_ok (snd (step x OStop)).
Proof.
  intros Hcfg G. destruct a as [p|]; cbn [LGRel] in G.
  - rewrite (lstop_obs _ _ _ _ L c crit x _ Hcfg G). reflexivity.
  - rewrite (lpre_sync _ _ _ _ L dview c crit x v OStop Hcfg G). destruct G as [_ [_ [Es _]]]. cbn [sync_step]. rewrite Es. reflexivity.
Qed.

Lemma lone_run_ok c crit x v ops :
  cfgp c crit -> (N.of_nat (length (closed_of v)) <= u32_max)%N -> Forall basic_op ops -> LIdle dview c x v ->
  Forall obs_ok (snd (run x (OStart c :: ops ++ [OStop]))).
Proof.
  intros Hcfg Hb Hops Id. cbn [run]. pose proof (lstart_pre dview c x v Id) as P0.
  assert (K0 : obs_ok (snd (step x (OStart c)))).
  { destruct Id as [_ [_ [Es _]]]. unfold step, apply_start. rewrite Es. unfold step_core. rewrite Es. reflexivity. }
  destruct (step x (OStart c)) as [x0 ob0]. cbn [fst snd] in P0, K0.
  rewrite run_app.
  pose proof (lgrun_rel _ _ _ _ L _ _ RL c crit v Hcfg Hb ops x0 None P0 Hops) as G1.
  pose proof (lgrun_ok c crit v Hcfg Hb ops x0 None P0 Hops) as K1.
  destruct (run x0 ops) as [x1 obs1]. cbn [fst snd] in *.
  pose proof (lgstop_ok c crit x1 v _ Hcfg G1) as K2. cbn [run]. destruct (step x1 OStop) as [x2 ob2]. cbn [fst snd] in *.
  constructor; [exact K0|]. apply Forall_app. split; [exact K1 | constructor; [exact K2 | constructor]].
Qed.
End RunOk.

Lemma step_rel_ok c crit x a o : numcfg c crit -> Rel c crit x a -> basic_op o -> obs_ok (snd (step x o)).
Proof. exact (lstep_ok _ _ _ _ num_layout c crit x a o). Qed.

Definition GRelO (c : config) (crit : criterion) (x : sys) (v : oview) (a : aview) : Prop :=
  match a with None => PreO c x v | Some _ => Rel c crit x a end.

Definition g_step_o (c : config) (v : oview) (a : aview) (o : op) (rot : bool) : aview :=
  match a with
  | None => match o with
            | OWrite _ | OPlain _ => a_step (Some (init_view_o c v)) o rot
            | _ => None
            end
  | Some _ => a_step a o rot
  end.

Lemma step_sync_preo c crit x v o : numcfg c crit -> PreO c x v -> step x o = sync_step x o.
Proof.
  intros [_ [Hts [_ Ha]]] [_ [_ [Es _]]]. apply (step_sync_cfg x o (new_flw c) Es); assumption.
Qed.

Lemma gstep_rel_o c crit x v a o :
  numcfg c crit -> (N.of_nat (length (fst v)) <= u32_max)%N ->
  GRelO c crit x v a -> basic_op o ->
  let '(x', ob) := step x o in GRelO c crit x' v (g_step_o c v a o (rot_of ob)) /\ obs_ok ob.
Proof.
  intros Hcfg Hb G Ho. destruct a as [p|].
  - cbn [GRelO g_step_o] in *. pose proof (step_rel c crit x (Some p) o Hcfg G Ho) as S.
    pose proof (step_rel_ok c crit x (Some p) o Hcfg G Ho) as K.
    destruct (step x o) as [x' ob]. destruct S as [R1 _]. cbn [snd] in K. split; [|exact K].
    destruct (a_step_some p o (rot_of ob)) as [q Eq]. rewrite Eq in *. exact R1.
  - cbn [GRelO] in G. rewrite (step_sync_preo c crit x v o Hcfg G).
    pose proof G as [Ht [Ha [Es [Q [W D]]]]].
    destruct o; try contradiction; cbn [sync_step].
    + (* OWrite *)
      destruct (first_write_o c crit x v (s_tl x ++ b) Hcfg Hb G) as [w' [s' [rot [E R']]]].
      rewrite Es. cbn [new_flw f_poisoned]. fold (new_flw c). rewrite E. cbn [rot_of g_step_o].
      split; [|reflexivity].
      rewrite Ht in R'. cbn [app] in R'.
      destruct (a_step_some (init_view_o c v) (OWrite b) rot) as [q Eq]. rewrite Eq in *. exact R'.
    + (* OPlain *)
      destruct (first_write_o c crit x v b Hcfg Hb G) as [w' [s' [rot [E R']]]].
      rewrite Es. cbn [new_flw f_poisoned]. fold (new_flw c). rewrite E. cbn [rot_of g_step_o code_of]. rewrite Ht.
      split; [|reflexivity].
      change (a_step (Some (init_view_o c v)) (OPlain b) rot) with (a_step (Some (init_view_o c v)) (OWrite b) rot).
      destruct (a_step_some (init_view_o c v) (OWrite b) rot) as [q Eq]. rewrite Eq in *. exact R'.
    + (* OFlush *)
      rewrite Es. cbn [new_flw f_poisoned flush_state f_inner rot_of g_step_o GRelO].
      split; [|reflexivity]. split; [exact Ht|]. split; [exact Ha|]. split; [reflexivity|]. split; [exact Q|]. split; [exact W | exact D].
    + (* OTrigger *)
      rewrite Es. cbn [new_flw f_poisoned f_cfg f_inner mount_next with_inner rot_of g_step_o code_of GRelO].
      split; [|reflexivity]. split; [exact Ht|]. split; [exact Ha|]. split; [reflexivity|]. split; [exact Q|]. split; [exact W | exact D].
    + (* OTick *)
      cbn [rot_of g_step_o GRelO]. split; [|reflexivity]. split; [exact Ht|]. split; [exact Ha|]. split; [exact Es|].
      split; [apply quiet_set_now; exact Q|]. split; [exact W | exact D].
    + (* OSnap *)
      cbn [rot_of g_step_o GRelO]. split; [exact G | exact Logic.I].
Qed.

Fixpoint g_run_o (c : config) (v : oview) (a : aview) (ops : list op) (obs : list obs) : aview :=
  match ops, obs with
  | o :: r, ob :: robs => g_run_o c v (g_step_o c v a o (rot_of ob)) r robs
  | _, _ => a
  end.

Lemma grun_rel_o c crit v : numcfg c crit -> (N.of_nat (length (fst v)) <= u32_max)%N ->
  forall ops x a, GRelO c crit x v a -> Forall basic_op ops ->
  GRelO c crit (fst (run x ops)) v (g_run_o c v a ops (snd (run x ops))) /\ Forall obs_ok (snd (run x ops)).
Proof.
  intros Hcfg Hb. induction ops as [|o r IH]; intros x a G Hbo; [split; [exact G | constructor]|].
  cbn [run]. inversion Hbo as [|o' r' Ho Hr]; subst.
  pose proof (gstep_rel_o c crit x v a o Hcfg Hb G Ho) as S. destruct (step x o) as [x1 ob]. destruct S as [S K].
  specialize (IH x1 _ S Hr). destruct (run x1 r) as [x2 obs]. cbn [fst snd g_run_o] in *.
  split; [apply IH | constructor; [exact K | apply IH]].
Qed.

(* ---- the bytes of the view ---- *)
Definition gflat_o (v : oview) (a : aview) : bytes := match a with None => oflat v | Some _ => flat a end.

Lemma g_step_o_flat c v a o rot : basic_op o -> gflat_o v (g_step_o c v a o rot) = gflat_o v a ++ written [o].
Proof.
  intros Ho. destruct a as [p|].
  - cbn [g_step_o gflat_o]. destruct (a_step_some p o rot) as [q Eq]. rewrite <- (a_step_flat (Some p) o rot Ho), Eq. reflexivity.
  - destruct o; try contradiction; cbn [g_step_o gflat_o written]; rewrite ?app_nil_r; try reflexivity.
    + destruct (a_step_some (init_view_o c v) (OWrite b) rot) as [q Eq].
      assert (X : gflat_o v (a_step (Some (init_view_o c v)) (OWrite b) rot) = flat (a_step (Some (init_view_o c v)) (OWrite b) rot))
        by (rewrite Eq; reflexivity).
      rewrite X, (a_step_flat _ (OWrite b) rot Logic.I), init_view_o_flat. cbn [written]. rewrite app_nil_r. reflexivity.
    + destruct (a_step_some (init_view_o c v) (OPlain b) rot) as [q Eq].
      assert (X : gflat_o v (a_step (Some (init_view_o c v)) (OPlain b) rot) = flat (a_step (Some (init_view_o c v)) (OPlain b) rot))
        by (rewrite Eq; reflexivity).
      rewrite X, (a_step_flat _ (OPlain b) rot Logic.I), init_view_o_flat. cbn [written]. rewrite app_nil_r. reflexivity.
Qed.

Lemma g_run_o_flat c v ops : forall a obs, Forall basic_op ops -> length obs = length ops ->
  gflat_o v (g_run_o c v a ops obs) = gflat_o v a ++ written ops.
Proof.
  induction ops as [|o r IH]; intros a obs Hb Hl; [cbn; rewrite app_nil_r; reflexivity|].
  destruct obs as [|ob robs]; [discriminate|]. inversion Hb as [|o' r' Ho Hr]; subst.
  cbn [g_run_o]. rewrite IH by (auto; cbn in Hl; lia). rewrite g_step_o_flat by assumption.
  rewrite (written_cons o r), app_assoc. reflexivity.
Qed.

(* ---- start and stop ---- *)
Lemma idleo_spec c c' x v : c_spec c = c_spec c' -> IdleO c x v -> IdleO c' x v.
Proof.
  intros E [H1 [H2 [H3 [H4 [H5 H6]]]]].
  split; [exact H1|]. split; [exact H2|]. split; [exact H3|]. split; [exact H4|]. split; [exact H5|].
  exact (reader_view_opt_spec c c' _ _ _ E H6).
Qed.

Lemma start_preo c x v : IdleO c x v -> PreO c (fst (step x (OStart c))) v /\ obs_ok (snd (step x (OStart c))).
Proof.
  intros [Ht [Ha [Es [Q [W D]]]]]. unfold step, apply_start. rewrite Es. unfold step_core. rewrite Es. cbn [sync_step fst snd].
  split; [|reflexivity]. split; [exact Ht|]. split; [exact Ha|]. split; [reflexivity|]. split; [exact Q|]. split; [exact W | exact D].
Qed.

(* the directory after the run *)
Definition gview_o (v : oview) (a : aview) : oview :=
  match a with None => v | Some (cl, cu) => (cl, Some cu) end.

Lemma gview_o_flat v a : oflat (gview_o v a) = gflat_o v a.
Proof. destruct a as [[cl cu]|]; reflexivity. Qed.

Lemma stop_o c crit x v a : numcfg c crit -> GRelO c crit x v a ->
  reader_view_opt c (wfs (s_w (fst (step x OStop)))) (fst (gview_o v a)) (snd (gview_o v a))
  /\ obs_ok (snd (step x OStop)).
Proof.
  intros Hcfg G. destruct a as [[closed cur]|]; cbn [GRelO gview_o fst snd] in *.
  - pose proof (stop_rel c crit x _ Hcfg G) as S.
    assert (K : obs_ok (snd (step x OStop))).
    { rewrite (step_sync_rel c crit x _ OStop Hcfg G). cbn [sync_step].
      destruct G as [_ [_ [wr [roll [Es _]]]]]. rewrite Es. reflexivity. }
    destruct (step x OStop) as [x' ob]. cbn [fst snd] in *. split; [|exact K].
    apply reader_view_opt_some. exact S.
  - rewrite (step_sync_preo c crit x v OStop Hcfg G). destruct G as [Ht [Ha [Es [Q [W D]]]]]. cbn [sync_step].
    rewrite Es. cbn [new_flw f_poisoned drop_state shutdown_state f_inner fst snd s_w]. split; [exact D | reflexivity].
Qed.

(* ---- one whole run on the directory of a killed writer ---- *)
Lemma one_run_o c crit x v ops :
  numcfg c crit -> (N.of_nat (length (fst v)) <= u32_max)%N ->
  Forall basic_op ops -> IdleO c x v ->
  Forall obs_ok (snd (run x (OStart c :: ops ++ [OStop])))
  /\ exists closed ocur, reader_view_opt c (wfs (s_w (fst (run x (OStart c :: ops ++ [OStop]))))) closed ocur
       /\ concat closed ++ (match ocur with Some cu => cu | None => [] end) = oflat v ++ written ops.
Proof.
  intros Hcfg Hb Hops Id. cbn [run]. pose proof (start_preo c x v Id) as [P0 K0].
  destruct (step x (OStart c)) as [x0 ob0]. cbn [fst snd] in P0, K0.
  rewrite run_app.
  pose proof (grun_rel_o c crit v Hcfg Hb ops x0 None P0 Hops) as [G1 K1]. pose proof (run_length ops x0) as L.
  destruct (run x0 ops) as [x1 obs1]. cbn [fst snd] in *.
  pose proof (stop_o c crit x1 v _ Hcfg G1) as [S K2]. cbn [run]. destruct (step x1 OStop) as [x2 ob2]. cbn [fst snd] in *.
  split.
  - constructor; [exact K0|]. apply Forall_app. split; [exact K1 | constructor; [exact K2 | constructor]].
  - exists (fst (gview_o v (g_run_o c v None ops obs1))), (snd (gview_o v (g_run_o c v None ops obs1))).
    split; [exact S|].
    pose proof (gview_o_flat v (g_run_o c v None ops obs1)) as F. unfold oflat in F at 1. rewrite F.
    rewrite (g_run_o_flat c v ops None obs1 Hops L). reflexivity.
Qed.

(* One side condition that the model needs (as in numbers_restarts_partial): the bound on the length of the first
   history, because the index that the restarting writer reads back from a listed file name is parsed as u32 and
   counts as 0 when it does not fit (NumRestart.index_beyond_u32_reads_as_0).  Nothing else is missing: any kill
   point, any history, any capacity / append flag / criterion for the second writer.  Every observation of the
   second run is a success; rCURRENT is absent from the final directory only when the second run writes nothing and
   the kill fell between the rename and the creation. *)
Theorem numbers_kill_restart_partial c crit c' crit' t0 off ops1 k ops2 ops3 :
  numcfg c crit -> c_cap c = None -> numcfg c' crit' -> c_spec c' = c_spec c ->
  Forall basic_op ops1 -> Forall basic_op ops2 -> Forall basic_op ops3 ->
  (N.of_nat (S (length ops1 + length ops2)) <= u32_max)%N ->
  let x1 := fst (run (sys0 t0 off) (OStart c :: ops1 ++ [OSetKill k])) in
  let xk := fst (run (sys0 t0 off) (OStart c :: ops1 ++ [OSetKill k] ++ ops2 ++ [OCrash])) in
  let r2 := run xk (OStart c' :: ops3 ++ [OStop]) in
  Forall obs_ok (snd r2)
  /\ exists closed ocur,
       reader_view_opt c' (wfs (s_w (fst r2))) closed ocur
       /\ concat closed ++ (match ocur with Some cu => cu | None => [] end)
          = written ops1 ++ acked x1 ops2 ++ written ops3.
Proof.
  intros Hcfg Hcap Hcfg' Hsp Hb1 Hb2 Hb3 Hbound x1 xk r2.
  destruct (kill_history c crit Hcfg Hcap t0 off ops1 k ops2 Hb1 Hb2) as [v [Id [F Len]]].
  fold xk in Id. fold x1 in F.
  assert (Hb : (N.of_nat (length (fst v)) <= u32_max)%N) by lia.
  destruct (one_run_o c' crit' xk v ops3 Hcfg' Hb Hb3 (idleo_spec c c' xk v (eq_sym Hsp) Id)) as [K [cl [ocu [R E]]]].
  split; [exact K|]. exists cl, ocu. split; [exact R|]. rewrite E, F, <- app_assoc. reflexivity.
Qed.
Print Assumptions numbers_kill_restart_partial.

(* the two runs as one history *)
Lemma two_runs_one_history x h1 h2 :
  run x (h1 ++ h2) = (fst (run (fst (run x h1)) h2), snd (run x h1) ++ snd (run (fst (run x h1)) h2)).
Proof. rewrite run_app. destruct (run x h1) as [xa oa]. cbn [fst snd]. destruct (run xa h2). reflexivity. Qed.

(* ------------------------------------------------------------------ examples (non-vacuity) *)
Open Scope string_scope.
(* first writer: direct mode, size criterion 3 *)
Definition kx_cfg : config := ex_cfg (ex_sp "log") false (CSize 3) None.
Definition kx_ops1 : list op := [OWrite (bs "abcd"); OWrite (bs "ef")].
Definition kx_ops2 : list op := [OTrigger; OWrite (bs "gh"); OSnap].
Definition kx_hist (k : nat) : list op := OStart kx_cfg :: kx_ops1 ++ [OSetKill k] ++ kx_ops2 ++ [OCrash].
Definition kx_armed (k : nat) : sys := fst (run (sys0 0 0) (OStart kx_cfg :: kx_ops1 ++ [OSetKill k])).

Lemma kx_numcfg : numcfg kx_cfg (CSize 3).
Proof. repeat split. Qed.
Lemma kx_basic1 : Forall basic_op kx_ops1.
Proof. repeat constructor. Qed.
Lemma kx_basic2 : Forall basic_op kx_ops2.
Proof. repeat constructor. Qed.

(* kill point 1: the trigger renames rCURRENT to r00001 (one effect), the creation of the new rCURRENT is the kill
   point.  The directory has no current file; nothing of ops2 is acknowledged *)
Example kill_in_rotation_dir :
  snap_of (fst (run (sys0 0 0) (kx_hist 1)))
  = [ (bs "app_r00000.log", 0%N, bs "abcd"); (bs "app_r00001.log", 0%N, bs "ef") ].
Proof. vm_compute. reflexivity. Qed.

Example kill_in_rotation_alive :
  List.map (fun j => alive (s_w (fst (run (kx_armed 1) (firstn j kx_ops2))))) [0; 1; 2; 3] = [true; false; false; false]
  /\ acked (kx_armed 1) kx_ops2 = [].
Proof. vm_compute. split; reflexivity. Qed.

Example kill_in_rotation_instance :
  exists closed ocur,
    reader_view_opt kx_cfg (wfs (s_w (fst (run (sys0 0 0) (kx_hist 1))))) closed ocur
    /\ concat closed ++ (match ocur with Some cu => cu | None => [] end) = bs "abcdef".
Proof.
  destruct (numbers_kill_keeps_acked kx_cfg (CSize 3) 0 0 kx_ops1 1 kx_ops2 kx_numcfg eq_refl kx_basic1 kx_basic2)
    as [cl [ocu [R E]]].
  exists cl, ocu. split; [exact R|]. rewrite E. vm_compute. reflexivity.
Qed.

(* the other kill points of the same history: 0 - the rename is the kill point, nothing changes; 2 - the rotation is
   completed (acknowledged, it writes nothing), the write of "gh" is the kill point: the new current file is empty;
   3 - everything happens *)
Example kill_points_dirs :
  snap_of (fst (run (sys0 0 0) (kx_hist 0)))
  = [ (bs "app_r00000.log", 0%N, bs "abcd"); (bs "app_rCURRENT.log", 0%N, bs "ef") ]
  /\ snap_of (fst (run (sys0 0 0) (kx_hist 2)))
  = [ (bs "app_r00000.log", 0%N, bs "abcd"); (bs "app_r00001.log", 0%N, bs "ef"); (bs "app_rCURRENT.log", 0%N, []) ]
  /\ snap_of (fst (run (sys0 0 0) (kx_hist 3)))
  = [ (bs "app_r00000.log", 0%N, bs "abcd"); (bs "app_r00001.log", 0%N, bs "ef"); (bs "app_rCURRENT.log", 0%N, bs "gh") ]
  /\ acked (kx_armed 0) kx_ops2 = [] /\ acked (kx_armed 2) kx_ops2 = [] /\ acked (kx_armed 3) kx_ops2 = bs "gh".
Proof. vm_compute. repeat split; reflexivity. Qed.

(* a kill inside a write that rotates: "ghij" is written and acknowledged, the next write rotates (6 > 3: rename,
   create) and is killed at its write effect *)
Example kill_in_rotating_write :
  let ops2 := [OWrite (bs "ghij"); OWrite (bs "kl")] in
  snap_of (fst (run (sys0 0 0) (OStart kx_cfg :: kx_ops1 ++ [OSetKill 3] ++ ops2 ++ [OCrash])))
  = [ (bs "app_r00000.log", 0%N, bs "abcd"); (bs "app_r00001.log", 0%N, bs "efghij"); (bs "app_rCURRENT.log", 0%N, []) ]
  /\ acked (kx_armed 3) ops2 = bs "ghij".
Proof. vm_compute. split; reflexivity. Qed.

(* a kill in the very first write: the creation of rCURRENT is the kill point, the directory stays empty *)
Example kill_in_first_write :
  snap_of (fst (run (sys0 0 0) (OStart kx_cfg :: [] ++ [OSetKill 0] ++ [OWrite (bs "a")] ++ [OCrash]))) = [].
Proof. vm_compute. reflexivity. Qed.

(* the restart: a buffered, appending writer on the directory without rCURRENT; and a non-appending writer on the
   directory with the freshly created empty rCURRENT (it closes the empty file under the next number) *)
Definition kx_cfg2 (app : bool) : config := ex_cfg (ex_sp "log") app (CSize 100) (Some 8%nat).
Definition kx_ops3 : list op := [OWrite (bs "ij"); OFlush; OTick 5; OWrite (bs "k")].

Example restart_after_kill_dirs :
  snap_of (fst (run (fst (run (sys0 0 0) (kx_hist 1))) (OStart (kx_cfg2 true) :: kx_ops3 ++ [OStop])))
  = [ (bs "app_r00000.log", 0%N, bs "abcd"); (bs "app_r00001.log", 0%N, bs "ef"); (bs "app_rCURRENT.log", 0%N, bs "ijk") ]
  /\ snap_of (fst (run (fst (run (sys0 0 0) (kx_hist 2))) (OStart (kx_cfg2 false) :: kx_ops3 ++ [OStop])))
  = [ (bs "app_r00000.log", 0%N, bs "abcd"); (bs "app_r00001.log", 0%N, bs "ef"); (bs "app_r00002.log", 0%N, []);
      (bs "app_rCURRENT.log", 0%N, bs "ijk") ].
Proof. vm_compute. split; reflexivity. Qed.

Example restart_after_kill_instance :
  let r2 := run (fst (run (sys0 0 0) (kx_hist 1))) (OStart (kx_cfg2 true) :: kx_ops3 ++ [OStop]) in
  Forall obs_ok (snd r2)
  /\ exists closed ocur,
       reader_view_opt (kx_cfg2 true) (wfs (s_w (fst r2))) closed ocur
       /\ concat closed ++ (match ocur with Some cu => cu | None => [] end) = bs "abcdefijk".
Proof.
  assert (H : numcfg (kx_cfg2 true) (CSize 100)) by (repeat split).
  assert (H3 : Forall basic_op kx_ops3) by (repeat constructor).
  assert (Hb : (N.of_nat (S (length kx_ops1 + length kx_ops2)) <= u32_max)%N) by (vm_compute; discriminate).
  destruct (numbers_kill_restart_partial kx_cfg (CSize 3) (kx_cfg2 true) (CSize 100) 0 0 kx_ops1 1 kx_ops2 kx_ops3
              kx_numcfg eq_refl H eq_refl kx_basic1 kx_basic2 H3 Hb) as [K [cl [ocu [R E]]]].
  split; [exact K|]. exists cl, ocu. split; [exact R|]. rewrite E. vm_compute. reflexivity.
Qed.

Print Assumptions numbers_kill_keeps_acked.
Print Assumptions numbers_kill_restart_partial.
