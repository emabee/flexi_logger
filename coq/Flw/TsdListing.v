(* "The listing returns exactly the existing family files the selector asks for" for TimestampsDirect naming (ListingExact.v
   has Numbers, NumbersDirect and Timestamps).  At every point of every history  OStart c :: ops  covered by
   timestampsdirect_stream the operation  existing_log_files(selector)  (OQuery sel) returns normally, leaves the state as it is,
   and its result satisfies the oracle Oracles/O_Names.oracle_listing on the snapshot of the directory: sorted, it is exactly
   expected_listing.  The listing filters with the time-stamp parser (IFTs std_fmt), as for Timestamps naming.
   There is no rCURRENT file: with_r_current (sel_rcur) and a custom current infix (sel_custom, custom_ok_ts: it is no time
   stamp) select NOTHING, in the model and in the oracle - timestampsdirect_listing_no_current: the answer is the one for the
   selector without them; asked for alone they give the empty list.
   Condition custom_ok_ts is needed (example tsd_custom_stamp_listed): a custom infix that is the time stamp of existing files
   lists those files - all files of that second, the restart siblings included -, the oracle does not count them as current. *)
Require Import FL.Base.Bytes FL.Base.PathName FL.Fs.Fs FL.Time.TsFormat
  FL.Names.FileSpec FL.Names.NamesFacts FL.Names.SortFacts FL.Names.FamilyFacts FL.Flw.Model FL.Flw.ModelFacts
  FL.Flw.NumInv FL.Flw.Run FL.Flw.NumRun FL.Oracles.O_Flw FL.Oracles.ReaderOrder FL.Oracles.O_Names
  FL.Flw.NumTheorems FL.Flw.NumListing FL.Flw.NumRestart
  FL.Flw.TsTime FL.Flw.TsNames FL.Flw.TsInv FL.Flw.TsRun FL.Flw.TsTheorems FL.Flw.TsReader
  FL.Flw.TsdInv FL.Flw.TsdRun FL.Flw.TsdTheorems
  FL.Flw.NumKillRestart FL.Flw.NoPanic FL.Flw.TsParse FL.Flw.ListingExact FL.Flw.TsdNames.
From Coq Require Import Permutation Sorted.
Open Scope nat_scope.

(* ------------------------------------------------------------------ the oracle's selection of a file of the family *)
Lemma kname_selected_tsd c crit k sel e key d : c_rot c = Some (crit, NTimestampsDirect, k) -> not_gz c -> in_years e (fst key) ->
  selected sel c (kname c e key, 0%N, d) = sel_plain sel.
Proof.
  intros Hrot G Y. unfold selected, classify_entry. rewrite Hrot. change (fixed_name_part (c_spec c) []) with (fixed0 c).
  rewrite (full_infix_kname c e key G Y). change (0 =? 1)%N with false. change (0 =? 0)%N with true. cbv iota.
  unfold cur_infix_of. rewrite Hrot. rewrite (valid_std_infix NTimestampsDirect None e key eq_refl Y). reflexivity.
Qed.

(* without a current infix the oracle ignores with_r_current and the custom infix *)
Definition no_current (sel : selector) : selector :=
  {| sel_plain := sel_plain sel; sel_gz := sel_gz sel; sel_rcur := false; sel_custom := None |}.

Lemma selected_no_current c sel en : cur_infix_of c = None -> selected sel c en = selected (no_current sel) c en.
Proof.
  intros H. unfold selected. destruct (classify_entry c en); cbn [no_current sel_plain sel_gz sel_rcur sel_custom]; try reflexivity.
  rewrite H. destruct (sel_rcur sel), (sel_custom sel); reflexivity.
Qed.

Lemma expected_no_current c sel l : cur_infix_of c = None -> expected_listing sel c l = expected_listing (no_current sel) c l.
Proof.
  intros H. unfold expected_listing. f_equal. f_equal. apply filter_ext. intros en. apply selected_no_current. exact H.
Qed.

Lemma selected_none c sel en : cur_infix_of c = None -> sel_plain sel = false -> sel_gz sel = false -> selected sel c en = false.
Proof.
  intros H P Z. rewrite (selected_no_current c sel en H). unfold selected.
  destruct (classify_entry c en); cbn [no_current sel_plain sel_gz sel_rcur sel_custom]; try assumption; try reflexivity.
Qed.

Lemma expected_none c sel l : cur_infix_of c = None -> sel_plain sel = false -> sel_gz sel = false -> expected_listing sel c l = [].
Proof.
  intros H P Z. unfold expected_listing.
  rewrite (filter_ext _ (fun _ => false) (fun en => selected_none c sel en H P Z)), filter_false. reflexivity.
Qed.

Lemma sort_names_nil l : sort_names l = [] -> l = [].
Proof.
  intros H. destruct l as [|x l]; [reflexivity|]. exfalso.
  assert (I : In x (sort_names (x :: l))) by (apply sort_names_in'; left; reflexivity). rewrite H in I. destruct I.
Qed.

(* ------------------------------------------------------------------ the query on a state of the invariant *)
Lemma query_reltd c crit e lo hi n x a sel :
  tsdcfg c crit -> not_gz c -> custom_ok_ts sel -> years_ok e lo hi -> (wnow (s_w x) <= hi)%Z -> RelTd c crit e lo n x a ->
  exists l, step x (OQuery sel) = (x, ObsList 0%N l) /\ oracle_listing sel c (snap_of x) l = true.
Proof.
  intros Hcfg G Hsel Y Hhi R. rewrite (step_sync_rel_tsd c crit e lo n x a (OQuery sel) Hcfg R). cbn [sync_step].
  destruct Hcfg as (Hrot & Hts & _). destruct R as [_ [_ R]]. rewrite snap_of_list. destruct a as [[closed cur]|].
  - destruct R as [keys [wr [roll [Es [Iv _]]]]]. rewrite Es. cbn [st_tsd f_poisoned]. unfold query.
    cbn [st_tsd f_cfg f_inner mk_rs rs_naming ns_filter]. unfold with_listing.
    rewrite (tick_quiet _ (td_quiet _ _ _ _ _ _ _ Iv)), (fixed_of_fixed0 c _ Hts), existing_rot_filters_ts. cbv zeta.
    fold (st_tsd c e (nth (length closed) keys kd) roll wr). cbv beta iota. rewrite (sys_eta x _ Es).
    eexists. split; [reflexivity|].
    set (f := wfs (s_w x)) in *.
    assert (Yk : forall i, i <= length closed -> in_years e (fst (nth i keys kd))).
    { intros i Hi. apply (years_in e lo hi _ Y).
      pose proof (td_range _ _ _ _ _ _ _ Iv (nth i keys kd)) as Rg. pose proof (td_len _ _ _ _ _ _ _ Iv) as Hl.
      assert (Ik : In (nth i keys kd) keys) by (apply nth_In; lia). specialize (Rg Ik). lia. }
    assert (Cases : forall m, In m (dir_names f) ->
              is_reg_file f m = true /\ exists d, snap_entry f m = (m, 0%N, d)
                /\ exists key, in_years e (fst key) /\ m = kname c e key).
    { intros m In_. apply dir_names_lookup in In_. destruct In_ as [j Lj].
      destruct (td_only _ _ _ _ _ _ _ Iv m j Lj) as [i [Hi Em]].
      assert (Pj : plain (inode f j)).
      { subst m. destruct (Nat.eq_dec i (length closed)) as [->|Hne].
        - unfold f in Lj. rewrite (td_cur _ _ _ _ _ _ _ Iv) in Lj. injection Lj as <-. exact (td_curplain _ _ _ _ _ _ _ Iv).
        - destruct (td_closed _ _ _ _ _ _ _ Iv i ltac:(lia)) as [j' [Lj' [Pj' _]]]. unfold f in Lj. rewrite Lj in Lj'.
          injection Lj' as <-. exact Pj'. }
      destruct Pj as [Pg Pd]. unfold snap_entry, is_reg_file, file_of. rewrite Lj, Pd, Pg. split; [reflexivity|].
      exists (fdata (inode f j)). split; [reflexivity|]. exists (nth i keys kd). split; [apply Yk; exact Hi | exact Em]. }
    apply generic_oracle.
    + intros m In_. destruct (Cases m In_) as [Hr [d [_ [key [Yi ->]]]]]. rewrite Hr.
      rewrite (kname_shape c e key Yi), is_prefix_under. reflexivity.
    + intros m In_. destruct (Cases m In_) as [_ [d [Es' [key [Yi ->]]]]]. rewrite Es'.
      destruct (kname_filters_ts (woff (s_w x)) c sel e G Hsel key Yi) as (-> & -> & -> & ->).
      rewrite (kname_selected_tsd c crit KNever sel e key d Hrot G Yi), !orb_false_r. auto.
  - destruct R as [Es [Q [Hn _]]]. rewrite Es. cbn [new_flw f_poisoned]. unfold query. cbn [new_flw f_cfg f_inner]. rewrite Hrot.
    unfold with_listing. rewrite (tick_quiet _ Q), existing_rot_empty by exact Hn.
    fold (new_flw c). cbv beta iota. rewrite (sys_eta x _ Es). exists []. split; [reflexivity|].
    unfold oracle_listing, expected_listing, snap_list, dir_names. rewrite Hn. reflexivity.
Qed.

(* THE THEOREM.  For every history of basic operations and every selector (custom_ok_ts), under the hypotheses of
   timestampsdirect_stream and not_gz: in the state after  OStart c :: ops  the listing operation returns normally (code 0),
   changes nothing, and the oracle accepts its result for the snapshot of the directory: sorted, the result is exactly
   expected_listing sel c (snapshot). *)
Theorem timestampsdirect_listing_exact c crit t0 off ops sel :
  tsdcfg c crit -> tag_ok c -> not_gz c -> Forall basic_op ops -> Forall tick_ok ops -> custom_ok_ts sel ->
  (0 <= t0 + ts_e c off)%Z -> (t0 + elapsed ops + ts_e c off < sec_max)%Z -> (N.of_nat (length ops) <= usize_max)%N ->
  let x := fst (run (sys0 t0 off) (OStart c :: ops)) in
  exists l, step x (OQuery sel) = (x, ObsList 0%N l)
            /\ oracle_listing sel c (snap_of x) l = true
            /\ sort_names l = expected_listing sel c (snap_of x).
Proof.
  intros Hcfg T G Hb Htk Hsel Hlo Hhi Hmax x. unfold x. clear x. cbn [run].
  destruct (step (sys0 t0 off) (OStart c)) as [x0 ob0] eqn:E0.
  pose proof (start_rel_tsd c crit t0 off) as R0. rewrite E0 in R0. cbn [fst] in R0.
  assert (W0 : wnow (s_w x0) = t0) by (cbn in E0; injection E0 as <- _; reflexivity).
  assert (Y : years_ok (ts_e c off) t0 (t0 + elapsed ops)) by (split; assumption).
  pose proof (run_rel_tsd c crit _ _ _ Hcfg T Y ops x0 None 0 R0 Hb Htk ltac:(lia) ltac:(cbn [Nat.add]; exact Hmax)) as [R1 [W1 _]].
  destruct (run x0 ops) as [x1 obs1]. cbn [fst snd] in *.
  destruct (query_reltd c crit _ _ _ _ x1 _ sel Hcfg G Hsel Y ltac:(lia) R1) as [l [E O]]. exists l. split; [exact E|]. split; [exact O|].
  apply names_beq_eq. exact O.
Qed.
Print Assumptions timestampsdirect_listing_exact.

(* what with_r_current and the custom current infix select: nothing.  The answer is, up to the order, the one for the selector
   without them (no_current sel); when neither the plain files nor the archives are asked for, it is empty. *)
Theorem timestampsdirect_listing_no_current c crit t0 off ops sel :
  tsdcfg c crit -> tag_ok c -> not_gz c -> Forall basic_op ops -> Forall tick_ok ops -> custom_ok_ts sel ->
  (0 <= t0 + ts_e c off)%Z -> (t0 + elapsed ops + ts_e c off < sec_max)%Z -> (N.of_nat (length ops) <= usize_max)%N ->
  let x := fst (run (sys0 t0 off) (OStart c :: ops)) in
  exists l l0, step x (OQuery sel) = (x, ObsList 0%N l) /\ step x (OQuery (no_current sel)) = (x, ObsList 0%N l0)
               /\ sort_names l = sort_names l0
               /\ (sel_plain sel = false -> sel_gz sel = false -> l = []).
Proof.
  intros Hcfg T G Hb Htk Hsel Hlo Hhi Hmax x.
  assert (Ec : cur_infix_of c = None) by (unfold cur_infix_of; rewrite (proj1 Hcfg); reflexivity).
  destruct (timestampsdirect_listing_exact c crit t0 off ops sel Hcfg T G Hb Htk Hsel Hlo Hhi Hmax) as [l [E [_ S]]].
  destruct (timestampsdirect_listing_exact c crit t0 off ops (no_current sel) Hcfg T G Hb Htk I Hlo Hhi Hmax) as [l0 [E0 [_ S0]]].
  fold x in E, S, E0, S0. exists l, l0. split; [exact E|]. split; [exact E0|]. split.
  - rewrite S, S0. apply expected_no_current. exact Ec.
  - intros P Z. apply sort_names_nil. rewrite S. apply expected_none; assumption.
Qed.
Print Assumptions timestampsdirect_listing_no_current.

(* ------------------------------------------------------------------ instances *)
Import String.StringSyntax.
Open Scope string_scope.

Definition tl_x : sys := fst (run (sys0 0 0) (OStart tsd_c :: ext_ops)).

(* the model lists the newest file first *)
Example timestampsdirect_listing_instance_computed :
  snd (step tl_x (OQuery sel_all))
  = ObsList 0%N (List.map bs ["app_r1970-01-01_00-00-01.restart-0000.log"; "app_r1970-01-01_00-00-01.log";
                              "app_r1970-01-01_00-00-00.restart-0002.log"; "app_r1970-01-01_00-00-00.restart-0001.log";
                              "app_r1970-01-01_00-00-00.restart-0000.log"; "app_r1970-01-01_00-00-00.log"])
  /\ expected_listing sel_all tsd_c (snap_of tl_x)
     = List.map bs ["app_r1970-01-01_00-00-00.log"; "app_r1970-01-01_00-00-00.restart-0000.log";
                    "app_r1970-01-01_00-00-00.restart-0001.log"; "app_r1970-01-01_00-00-00.restart-0002.log";
                    "app_r1970-01-01_00-00-01.log"; "app_r1970-01-01_00-00-01.restart-0000.log"]
  /\ custom_ok_ts sel_all.
Proof. split; [vm_compute; reflexivity|]. split; [vm_compute; reflexivity | exact I]. Qed.

Example timestampsdirect_listing_instance sel : custom_ok_ts sel ->
  exists l, step tl_x (OQuery sel) = (tl_x, ObsList 0%N l) /\ oracle_listing sel tsd_c (snap_of tl_x) l = true
            /\ sort_names l = expected_listing sel tsd_c (snap_of tl_x).
Proof.
  intros Hsel. destruct tsd_instance_bounds as (B1 & B2 & B3).
  exact (timestampsdirect_listing_exact tsd_c (CSize 100) 0 0 ext_ops sel tsd_c_ok tsd_c_tag_ok tsd_c_not_gz ext_ops_basic ext_ops_ticks
           Hsel B1 B2 B3).
Qed.

(* with_r_current alone, and together with the custom current infix "rCURRENT": nothing is listed, six files exist *)
Example timestampsdirect_rcurrent_lists_nothing :
  let sel1 := {| sel_plain := false; sel_gz := false; sel_rcur := true; sel_custom := None |} in
  let sel2 := {| sel_plain := false; sel_gz := false; sel_rcur := true; sel_custom := Some cur_infix |} in
  let sel3 := {| sel_plain := false; sel_gz := false; sel_rcur := false; sel_custom := Some (bs "current") |} in
  snd (step tl_x (OQuery sel1)) = ObsList 0%N [] /\ snd (step tl_x (OQuery sel2)) = ObsList 0%N []
  /\ snd (step tl_x (OQuery sel3)) = ObsList 0%N []
  /\ length (snap_of tl_x) = 6
  /\ oracle_listing sel1 tsd_c (snap_of tl_x) [] = true /\ oracle_listing sel2 tsd_c (snap_of tl_x) [] = true
  /\ oracle_listing sel3 tsd_c (snap_of tl_x) [] = true.
Proof. cbv zeta. repeat split; vm_compute; reflexivity. Qed.

(* custom_ok_ts is needed for the oracle (not a defect of the listing): a custom current infix that is the time stamp of
   existing files lists the files of that second, as asked - the restart siblings included -; the oracle, for which this naming
   has no current file, expects nothing *)
Example tsd_custom_stamp_listed :
  let sel := {| sel_plain := false; sel_gz := false; sel_rcur := false; sel_custom := Some (bs "r1970-01-01_00-00-01") |} in
  snd (step tl_x (OQuery sel))
  = ObsList 0%N [bs "app_r1970-01-01_00-00-01.restart-0000.log"; bs "app_r1970-01-01_00-00-01.log"]
  /\ expected_listing sel tsd_c (snap_of tl_x) = []
  /\ oracle_listing sel tsd_c (snap_of tl_x) [bs "app_r1970-01-01_00-00-01.restart-0000.log"; bs "app_r1970-01-01_00-00-01.log"] = false
  /\ ~ custom_ok_ts sel.
Proof.
  cbv zeta. split; [vm_compute; reflexivity|]. split; [vm_compute; reflexivity|]. split; [vm_compute; reflexivity|].
  intros H. apply (H 0%Z 1%Z); [unfold in_years, sec_max; lia | vm_compute; reflexivity].
Qed.
