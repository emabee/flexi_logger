(* Files that are not members of the logger's file family are ignored - Timestamps naming (rCURRENT and
   r<time stamp>[.restart-NNNN]) WITH a cleanup strategy (TsForeign.v does this without cleanup; TsdCleanupForeign.v for
   TimestampsDirect naming with cleanup, NumCleanupForeign.v for Numbers naming with cleanup):
   the cleanup (cleanup_impl with the time-stamp filter, cur = None: rCURRENT is not listed) lists, removes and compresses
   family files only - ts_member rejects the foreign names, so they are not in the listing it works on; the archive name of a
   listed plain file is a family name, too (TsForeignFacts.cleanup_impl_embed_ts).
   A run in a directory pre-filled with foreign files is, step by step, the embedding (ForeignFs.embed) of the run in the
   empty directory: same observations, foreign files untouched (neither removed nor compressed), family files as in the
   clean run.  The run invariant is TsCleanupRun.RelSK. *)
Require Import FL.Flw.WorldPar.
Require Import FL.Base.Bytes FL.Base.BytesFacts FL.Base.PathName FL.Fs.Fs FL.Fs.FsFacts FL.Time.Civil FL.Time.TsFormat
  FL.Names.FileSpec FL.Names.NamesFacts FL.Names.SortFacts FL.Names.FamilyFacts FL.Flw.Model FL.Flw.ModelFacts FL.Flw.NumFs
  FL.Flw.NumInv FL.Flw.Run FL.Flw.RunFacts FL.Flw.NumRun FL.Oracles.O_Flw FL.Flw.NumTheorems FL.Flw.NumListing FL.Flw.CleanupFacts
  FL.Flw.NumKillRestart
  FL.Flw.NumCleanupNames FL.Flw.NumCleanupStep FL.Flw.NumCleanupRun FL.Flw.NumCleanup
  FL.Flw.TsCal FL.Flw.TsTime FL.Flw.TsMono FL.Flw.TsNames FL.Flw.TsInv FL.Flw.TsRun FL.Flw.TsTheorems FL.Flw.TsParse
  FL.Flw.ForeignFs FL.Flw.ForeignSort FL.Flw.ForeignModel FL.Flw.NumForeign FL.Flw.NumCleanupForeign
  FL.Flw.TsForeignFacts FL.Flw.TsForeign
  FL.Flw.GenCleanup FL.Flw.TsCleanupNames FL.Flw.TsCleanupRun FL.Flw.TsCleanup FL.Flw.TsdCleanupForeign.
From Coq Require Import ZifyN ZifyNat ZifyBool.
Open Scope nat_scope.

(* ------------------------------------------------------------------ the states of the run in the clean directory *)
Section RunSK.
Variable fn : list (bytes * nat).
Variable fi : list file.
Variable c : config.
Variable crit : criterion.
Variable k : cleanup.
Variables e lo hi : Z.
Hypothesis Hcfg : tskcfg c crit k.
Hypothesis Hsfx : sfx_ok (c_spec c).
Hypothesis Hyears : years_ok e lo hi.
Hypothesis Hforeign : forall n, In n (fnames fn) -> ts_member c n = false.

Definition good_sk (x : sys) : Prop := (exists a n, RelSK c crit k e lo n x a) /\ (wnow (s_w x) <= hi)%Z.

Lemma hk_sk : k = KNever \/ fsfx (c_spec c) <> Some gz_sfx.
Proof. right. apply sfx_ok_not_gz'. exact Hsfx. Qed.

Lemma good_sk_cfg x s : good_sk x -> s_flw x = Some s -> f_cfg s = c /\ f_poisoned s = false.
Proof.
  intros [[a [n [_ [_ R]]]] _] Es. destruct a as [[closed cur]|].
  - destruct R as [wr [roll [ts [E _]]]]. rewrite E in Es. injection Es as <-. split; reflexivity.
  - destruct R as [E _]. rewrite E in Es. injection Es as <-. split; reflexivity.
Qed.

Lemma good_sk_inner x s : good_sk x -> s_flw x = Some s -> good_inner_sk c k (s_w x) (f_inner s).
Proof.
  intros [[a [n [_ [_ R]]]] Hhi] Es. destruct a as [[closed cur]|].
  - destruct R as [wr [roll [ts [E [(keys & tcl & I & _) _]]]]]. rewrite E in Es. injection Es as <-. cbn.
    split; [|reflexivity]. exists ts. split; [reflexivity|]. rewrite (sk_off _ _ _ _ _ _ _ _ _ _ I).
    apply (years_in e lo hi); [exact Hyears|]. pose proof (sk_ts _ _ _ _ _ _ _ _ _ _ I). lia.
  - destruct R as [E _]. rewrite E in Es. injection Es as <-. exact Logic.I.
Qed.

Lemma mount_next_embed_good_sk x s : good_sk x -> s_flw x = Some s ->
  mount_next c (embedw fn fi (s_w x)) (shin fi (f_inner s)) true = lm fn fi (mount_next c (s_w x) (f_inner s) true).
Proof.
  intros G Es. destruct Hcfg as (Hrot & Hts & Hlink & _).
  apply (mount_next_embed_sk fn fi c k Hts Hlink hk_sk Hforeign). eapply good_sk_inner; eassumption.
Qed.

Lemma write_buffer_embed_good_sk x s b : good_sk x -> s_flw x = Some s ->
  write_buffer (embeds fi s) (embedw fn fi (s_w x)) b = lwb fn fi (write_buffer s (s_w x) b).
Proof.
  intros G Es. pose proof Hcfg as (Hrot & Hts & Hlink & _).
  pose proof (good_sk_inner x s G Es) as Gi. destruct (good_sk_cfg x s G Es) as [Ec _].
  destruct G as [[a [n [_ [_ R]]]] Hhi].
  apply (write_buffer_embed_pt fn fi c); [exact Ec | |].
  - (* a new writer: the directory of the clean run is empty, there is no current file, the clock is read *)
    intros Hi. destruct a as [[closed cur]|].
    + destruct R as [wr [roll [ts [E _]]]]. rewrite E in Es. injection Es as <-. discriminate Hi.
    + destruct R as [_ [Q [Hn [_ [Hoff Hlo]]]]]. apply (initialize_embed_sk fn fi c crit k Hrot Hts Hlink hk_sk Hforeign).
      intros _. unfold birth_or_now, file_of. rewrite lookup_empty by exact Hn. rewrite Hoff.
      apply (years_in e lo hi); [exact Hyears | lia].
  - intros w0 st0 H0. destruct a as [[closed cur]|].
    + destruct R as [wr [roll [ts [E _]]]]. rewrite E in Es. injection Es as <-. cbn [st_tsk f_inner] in H0.
      injection H0 as <- <-. apply (mount_next_embed_sk fn fi c k Hts Hlink hk_sk Hforeign). exact Gi.
    + destruct R as [E [Q [Hn [Hi [Hoff Hlo]]]]]. rewrite E in Es. injection Es as <-. cbn [new_flw f_inner] in H0.
      destruct (initialize_empty_sk c crit k e lo hi (s_w x) Hcfg Hsfx Hyears Hhi Q Hn Hi Hoff Hlo) as [w1 [wr [roll [Ei [_ [_ [_ [S1 _]]]]]]]].
      rewrite Ei in H0. injection H0 as <- <-.
      apply (mount_next_embed_sk fn fi c k Hts Hlink hk_sk Hforeign). cbn. split; [|reflexivity].
      exists (wnow (s_w x)). split; [reflexivity|]. rewrite (eoff_same_env c _ _ S1), Hoff.
      apply (years_in e lo hi); [exact Hyears | lia].
Qed.

(* the names of a directory of the invariant's shape (gdir with the names of the keys and rCURRENT) are family names *)
Lemma sk_dir_own f keys all lo' mid' :
  (forall key, In key keys -> in_years e (fst key)) -> length keys = length all ->
  gdir (tname c e keys) (cname c) f all lo' mid' ->
  forall n j, lookup f n = Some j -> ~ In n (fnames fn).
Proof.
  intros Yk Hlen KD n j Hj.
  assert (Yi : forall i, i < length all -> in_years e (fst (nth i keys kd))).
  { intros i Hi. apply Yk. apply nth_In. lia. }
  destruct (gd_only _ _ _ _ _ _ KD n j Hj) as [->|[[i [Hi ->]]|[i [Hi ->]]]].
  - exact (cname_own_t fn c Hforeign).
  - apply (kname_own fn c (foreign_td fn c Hforeign)). apply Yi. lia.
  - pose proof (gd_le _ _ _ _ _ _ KD) as Hle. unfold gzf, tname, kname. rewrite gz_name_app, infix_of_tail.
    assert (Y : in_years e (fst (nth i keys kd))) by (apply Yi; lia).
    apply (built_name_gz_own fn c (foreign_td fn c Hforeign)); [apply tsx_like; exact Y | exact (tsx_no_dot e _ Y) | apply ktail_restart_part].
Qed.

(* the directory of such a state holds no foreign name *)
Lemma good_sk_fam x : good_sk x -> fam_g fn good_sk x.
Proof.
  intros G. split; [exact G|]. destruct G as [[a [n [_ [_ R]]]] Hhi].
  intros nme Hn. destruct a as [[closed cur]|].
  - destruct R as [wr [roll [ts [_ [(keys & tcl & I & _) _]]]]]. apply dir_names_lookup in Hn. destruct Hn as [j Hj].
    exact (sk_dir_own _ keys _ _ _ (sk_years _ _ _ _ _ _ _ _ _ _ _ Hyears Hhi I) (sk_len _ _ _ _ _ _ _ _ _ _ I)
             (sk_dir _ _ _ _ _ _ _ _ _ _ I) nme j Hj).
  - destruct R as [_ [_ [E _]]]. unfold dir_names in Hn. rewrite E in Hn. destruct Hn.
Qed.
End RunSK.

(* ------------------------------------------------------------------ THE THEOREM *)
(* Hypotheses as for timestamps_cleanup_stream (the suffix is not gz and does not end with .gz; a clock that does not go
   backwards and stays within the years 1970..9999; no condition on the strategy), and the foreign-name condition of
   timestamps_foreign_ignored: the family test of the model (ts_member) rejects the name. *)
Theorem timestamps_cleanup_foreign_ignored c crit k t0 off foreign ops :
  tskcfg c crit k -> tag_ok c -> sfx_ok (c_spec c) -> Forall basic_op ops -> Forall tick_ok ops ->
  (0 <= t0 + ts_e c off)%Z -> (t0 + elapsed ops + ts_e c off < sec_max)%Z -> (N.of_nat (length ops) <= usize_max)%N ->
  NoDup (List.map fst foreign) ->
  (forall n, In n (List.map fst foreign) -> ts_member c n = false) ->
  let ops' := OStart c :: ops ++ [OStop] in
  let rf := run (sys0f t0 off foreign) ops' in
  let r0 := run (sys0 t0 off) ops' in
  (* 1: the same observations; a snapshot shows the foreign files in addition *)
  List.map (strip_obs (List.map fst foreign)) (snd rf) = snd r0
  /\ (Forall (fun o => o <> OSnap) ops -> snd rf = snd r0)
  (* 2: the foreign files are in place, unchanged: neither removed nor compressed *)
  /\ (forall n d, In (n, d) foreign -> file_of (wfs (s_w (fst rf))) n = Some (plain_file t0 d))
  (* 3: every other name is what the run in the empty directory makes of it *)
  /\ (forall n, ~ In n (List.map fst foreign) -> file_of (wfs (s_w (fst rf))) n = file_of (wfs (s_w (fst r0))) n)
  /\ (forall n, In n (List.map fst foreign) -> file_of (wfs (s_w (fst r0))) n = None)
  (* the whole state: the run is the embedding of the run in the empty directory *)
  /\ fst rf = embedx (names (fs0f t0 foreign)) (inodes (fs0f t0 foreign)) (fst r0).
Proof.
  intros Hcfg T Hsfx Hb Htk Hlo Hhi Hmax ND Hfor. pose proof Hcfg as (Hrot & Hts & Hlink & Hasync & Hbg).
  pose proof (fs0f_names t0 foreign ND) as Hd.
  assert (Hforeign : forall n, In n (fnames (names (fs0f t0 foreign))) -> ts_member c n = false) by (rewrite Hd; exact Hfor).
  assert (Y : years_ok (ts_e c off) t0 (t0 + elapsed ops)) by (split; assumption).
  apply (foreign_ignored_g c (good_sk c crit k (ts_e c off) t0 (t0 + elapsed ops)) t0 off foreign ops Hts Hasync).
  - intros x s G Es. eapply good_sk_cfg; eassumption.
  - intros x s b G Es. apply (write_buffer_embed_good_sk _ _ c crit k _ _ _ Hcfg Hsfx Y Hforeign); assumption.
  - intros x s G Es. apply (mount_next_embed_good_sk _ _ c crit k _ _ _ Hcfg Hsfx Y Hforeign); assumption.
  - exact Hb.
  - exact ND.
  - intros i. apply (good_sk_fam _ c crit k _ _ _ Y Hforeign).
    destruct (step (sys0 t0 off) (OStart c)) as [x0 ob0] eqn:E0.
    pose proof (start_rel_sk c crit k t0 off) as R0. rewrite E0 in R0. cbn [fst] in *.
    assert (W0 : wnow (s_w x0) = t0) by (cbn in E0; injection E0 as <- _; reflexivity).
    pose proof (elapsed_firstn_le ops Htk i) as El. pose proof (firstn_length_le ops i) as Ll.
    pose proof (run_rel_sk c crit k _ _ _ Hcfg Hsfx T Y (firstn i ops) x0 None 0 R0 (Forall_firstn' _ _ i Hb) (Forall_firstn' _ _ i Htk)
                  ltac:(lia) ltac:(cbn [Nat.add]; lia)) as [R1 [W1 _]].
    split; [eauto | lia].
  - intros n Hn. rewrite <- Hd in Hn.
    pose proof (timestamps_cleanup_stream c crit k t0 off ops Hcfg T Hsfx Hb Htk Hlo Hhi Hmax) as [_ [V _]].
    set (f := wfs (s_w (fst (run (sys0 t0 off) (OStart c :: ops ++ [OStop]))))) in *.
    destruct (lookup f n) as [j|] eqn:Ej; [exfalso|reflexivity].
    destruct (a_run None ops (snd (run (fst (step (sys0 t0 off) (OStart c))) ops))) as [[closed cur]|].
    + destruct V as [keys [[Hlen [KD _]] [_ Rg]]].
      refine (sk_dir_own _ c (ts_e c off) Hforeign f keys _ _ _ _ Hlen KD n j Ej Hn).
      intros key Ik. apply (years_in _ _ _ _ Y). exact (Rg key Ik).
    + unfold lookup in Ej. rewrite V in Ej. discriminate.
Qed.
Print Assumptions timestamps_cleanup_foreign_ignored.

(* the names of the run - of a closed file, of its archive, of the current file - are members of the family *)
Lemma member_kname c e k : in_years e (fst k) -> ts_member c (kname c e k) = true.
Proof. intros Y. unfold ts_member. rewrite (memberd_kname c e k Y). reflexivity. Qed.

Lemma member_gkname c e k : in_years e (fst k) -> ts_member c (gz_name (kname c e k)) = true.
Proof. intros Y. unfold ts_member. rewrite (memberd_gkname c e k Y). reflexivity. Qed.

Lemma member_cname c : ts_member c (cname c) = true.
Proof. unfold ts_member. rewrite beq_refl. apply orb_true_r. Qed.

(* timestamps_cleanup carries over: what the directory with the foreign files holds after the run.
   closed, cur: the reader's view that the run would leave without cleanup; (n, m) = klim k: n closed files are kept as they
   are, m as archives; rCURRENT holds cur.  K i: the name of the i-th closed file, G i: the name of its archive. *)
Theorem timestamps_cleanup_foreign_dir c crit k n m t0 off foreign ops closed cur :
  tskcfg c crit k -> klim k = Some (n, m) -> tag_ok c -> sfx_ok (c_spec c) ->
  Forall basic_op ops -> Forall tick_ok ops ->
  (0 <= t0 + ts_e c off)%Z -> (t0 + elapsed ops + ts_e c off < sec_max)%Z -> (N.of_nat (length ops) <= usize_max)%N ->
  a_run None ops (snd (run (fst (step (sys0 t0 off) (OStart c))) ops)) = Some (closed, cur) ->
  NoDup (List.map fst foreign) ->
  (forall x, In x (List.map fst foreign) -> ts_member c x = false) ->
  let ff := wfs (s_w (fst (run (sys0f t0 off foreign) (OStart c :: ops ++ [OStop])))) in
  let L := length closed in let lo := L - (n + m) in let mid := L - n in
  concat closed ++ cur = written ops
  /\ exists keys : list key,
       let K i := kname c (ts_e c off) (nth i keys kd) in
       let G i := gz_name (K i) in
       length keys = L /\ keys_ok keys /\ (forall key, In key keys -> (t0 <= fst key <= t0 + elapsed ops)%Z)
       (* exactly these names exist *)
       /\ (forall x, file_of ff x <> None <->
             In x (List.map fst foreign) \/ x = cname c \/ (exists i, mid <= i < L /\ x = K i) \/ (exists i, lo <= i < mid /\ x = G i))
       (* the foreign files as they were *)
       /\ (forall x d, In (x, d) foreign -> file_of ff x = Some (plain_file t0 d))
       (* the newest n closed files as they were closed, the next m as complete archives, rCURRENT *)
       /\ (forall i, mid <= i < L ->
             exists fl, file_of ff (K i) = Some fl /\ fdata fl = nth i closed [] /\ fgz fl = 0%N /\ fdir fl = false)
       /\ (forall i, lo <= i < mid ->
             exists fl, file_of ff (G i) = Some fl /\ fdata fl = nth i closed [] /\ fgz fl = 1%N /\ fdir fl = false)
       /\ (exists fl, file_of ff (cname c) = Some fl /\ fdata fl = cur /\ fgz fl = 0%N /\ fdir fl = false)
       (* older family files are gone; the originals of the archives, too *)
       /\ (forall i, i < lo -> file_of ff (K i) = None /\ file_of ff (G i) = None)
       /\ (forall i, lo <= i < mid -> file_of ff (K i) = None).
Proof.
  intros Hcfg Hk T Hsfx Hb Htk Hlo Hhi Hmax Ea ND Hfor ff L lo mid.
  destruct (timestamps_cleanup_foreign_ignored c crit k t0 off foreign ops Hcfg T Hsfx Hb Htk Hlo Hhi Hmax ND Hfor) as (_ & _ & F2 & F3 & F4 & _).
  fold ff in F2, F3.
  destruct (timestamps_cleanup c crit k n m t0 off ops closed cur Hcfg Hk T Hsfx Hb Htk Hlo Hhi Hmax Ea) as (P0 & keys & P).
  cbv zeta in P. fold L lo mid in P.
  set (f0 := wfs (s_w (fst (run (sys0 t0 off) (OStart c :: ops ++ [OStop]))))) in *.
  destruct P as (Hlen & Hko & Hrg & Pn & _ & _ & _ & _ & Pp & Pa & Po & _ & Pc).
  split; [exact P0|]. exists keys. cbv zeta.
  assert (Y : years_ok (ts_e c off) t0 (t0 + elapsed ops)) by (split; assumption).
  assert (Hcn : ~ In (cname c) (List.map fst foreign)).
  { intros Hin. apply Hfor in Hin. rewrite member_cname in Hin. discriminate. }
  assert (Hrn : forall i, i < L -> ~ In (kname c (ts_e c off) (nth i keys kd)) (List.map fst foreign)).
  { intros i Hi Hin. apply Hfor in Hin. rewrite member_kname in Hin; [discriminate|].
    apply (years_in _ _ _ _ Y). apply Hrg. apply nth_In. lia. }
  assert (Hgn : forall i, i < L -> ~ In (gz_name (kname c (ts_e c off) (nth i keys kd))) (List.map fst foreign)).
  { intros i Hi Hin. apply Hfor in Hin. rewrite member_gkname in Hin; [discriminate|].
    apply (years_in _ _ _ _ Y). apply Hrg. apply nth_In. lia. }
  split; [exact Hlen|]. split; [exact Hko|]. split; [exact Hrg|].
  split; [|split; [exact F2|split; [|split; [|split; [|split]]]]].
  - exact (exists_iff foreign ff f0 t0 F2 F3 _ Pn).
  - intros i Hi. rewrite (F3 _ (Hrn i ltac:(lia))). destruct (Pp i Hi) as [_ H]. exact H.
  - intros i Hi. rewrite (F3 _ (Hgn i ltac:(lia))). destruct (Pa i Hi) as [_ H]. exact H.
  - rewrite (F3 _ Hcn). exact Pc.
  - intros i Hi. assert (i < L) by lia. rewrite (F3 _ (Hrn i ltac:(lia))), (F3 _ (Hgn i ltac:(lia))). destruct (Po i Hi) as [H1 H2].
    unfold file_of. rewrite H1, H2. split; reflexivity.
  - intros i Hi. rewrite (F3 _ (Hrn i ltac:(lia))). destruct (Pa i Hi) as [H1 _]. unfold file_of. rewrite H1. reflexivity.
Qed.
Print Assumptions timestamps_cleanup_foreign_dir.

(* ------------------------------------------------------------------ example *)
Import String.StringSyntax.
Open Scope string_scope.
(* rCURRENT, one closed file as it is and one archive are kept; with append *)
Definition extf_k : config := extf_cfg (KLogGz 1 1) true.

(* the near misses of TsForeign.extf_foreign (among them rCURRENT with other suffixes and its archive, the files of the number
   namings), and near misses of the archive names *)
Definition extf_foreign_k : list (bytes * bytes) :=
  extf_foreign ++ [ (bs "a_r1970-01-01_00-00-00.log.gz.bak", bs "6"); (bs "a_r1970-01-01_00-00-00.gz", bs "7");
                    (bs "a_r1970-01-01_00-00-00.log.gzip", bs "8") ].

Example cleanup_foreign_hypotheses_t :
  tskcfg extf_k (CSize 3) (KLogGz 1 1) /\ tag_ok extf_k /\ sfx_ok (c_spec extf_k) /\ Forall basic_op extf_ops /\ Forall tick_ok extf_ops
  /\ (0 <= 0 + ts_e extf_k 0)%Z /\ (0 + elapsed extf_ops + ts_e extf_k 0 < sec_max)%Z
  /\ (N.of_nat (length extf_ops) <= usize_max)%N
  /\ NoDup (List.map fst extf_foreign_k)
  /\ (forall n, In n (List.map fst extf_foreign_k) -> ts_member extf_k n = false).
Proof.
  split; [repeat split|]. split; [apply tag_free_ok; split; vm_compute; reflexivity|]. split; [vm_compute; reflexivity|].
  split; [repeat constructor|].
  split; [repeat (apply Forall_cons; [cbn [tick_ok]; first [exact Logic.I | lia]|]); apply Forall_nil|].
  split; [vm_compute; discriminate|]. split; [vm_compute; reflexivity|]. split; [vm_compute; discriminate|]. split.
  - apply nodupb_sound. vm_compute. reflexivity.
  - apply forallb_false. vm_compute. reflexivity.
Qed.

(* the theorem applied *)
Example cleanup_foreign_instance_t :
  List.map (strip_obs (List.map fst extf_foreign_k)) (snd (run (sys0f 0 0 extf_foreign_k) (OStart extf_k :: extf_ops ++ [OStop])))
  = snd (run (sys0 0 0) (OStart extf_k :: extf_ops ++ [OStop])).
Proof.
  destruct cleanup_foreign_hypotheses_t as (H1 & H2 & H3 & H4 & H5 & H6 & H7 & H8 & H9 & H10).
  exact (proj1 (timestamps_cleanup_foreign_ignored extf_k (CSize 3) (KLogGz 1 1) 0 0 extf_foreign_k extf_ops H1 H2 H3 H4 H5 H6 H7 H8 H9 H10)).
Qed.

(* computed: three files were closed, all named by second 0 (<ts>, restart-0000, restart-0001); the cleanup has removed the
   first ("abcd"), compressed the second ("ef") and kept the third and rCURRENT - and nothing else: the stranger's files of
   second 0 with other suffixes (.log.bak, .txt, none, .gz, .log.gz.bak, .log.gzip), the one with a two-digit restart counter,
   a_rCURRENT, a_rCURRENT.txt, a_rCURRENT.log.gz and the files with number infixes are left alone *)
Example cleanup_foreign_instance_dir_t :
  ex_snap (fst (run (sys0f 0 0 extf_foreign_k) (OStart extf_k :: extf_ops ++ [OStop])))
  = [ (bs "a.log", 0%N, bs "q");
      (bs "a_1970-01-01_00-00-00.log", 0%N, bs "o");
      (bs "a_r00001.log", 0%N, bs "2");
      (bs "a_r00001.log.gz", 0%N, bs "5");
      (bs "a_r1.log", 0%N, bs "u");
      (bs "a_r1970-01-01.log", 0%N, bs "4");
      (bs "a_r1970-01-01_00-00-00", 0%N, bs "t");
      (bs "a_r1970-01-01_00-00-00.gz", 0%N, bs "7");
      (bs "a_r1970-01-01_00-00-00.log.bak", 0%N, bs "w");
      (bs "a_r1970-01-01_00-00-00.log.gz.bak", 0%N, bs "6");
      (bs "a_r1970-01-01_00-00-00.log.gzip", 0%N, bs "8");
      (bs "a_r1970-01-01_00-00-00.restart-00.log", 0%N, bs "p");
      (bs "a_r1970-01-01_00-00-00.restart-0000.log.gz", 1%N, bs "ef");
      (bs "a_r1970-01-01_00-00-00.restart-0001.log", 0%N, bs "ghij");
      (bs "a_r1970-01-01_00-00-00.txt", 0%N, bs "z");
      (bs "a_r1x.log", 0%N, bs "1");
      (bs "a_r2030-01-01_00-00-00x.log", 0%N, bs "3");
      (bs "a_rCURRENT", 0%N, bs "m");
      (bs "a_rCURRENT.log", 0%N, bs "k");
      (bs "a_rCURRENT.log.gz", 0%N, bs "n");
      (bs "a_rCURRENT.txt", 0%N, bs "s");
      (bs "a_rXYZ.log", 0%N, bs "x");
      (bs "ax_r1970-01-01_00-00-00.log", 0%N, bs "v");
      (bs "b.log", 0%N, bs "y") ]
  /\ ex_snap (fst (run (sys0 0 0) (OStart extf_k :: extf_ops ++ [OStop])))
  = [ (bs "a_r1970-01-01_00-00-00.restart-0000.log.gz", 1%N, bs "ef");
      (bs "a_r1970-01-01_00-00-00.restart-0001.log", 0%N, bs "ghij");
      (bs "a_rCURRENT.log", 0%N, bs "k") ].
Proof. vm_compute. split; reflexivity. Qed.

(* the directory theorem applied: L = 3 closed files, n = 1, m = 1: lo = 1, mid = 2 *)
Example cleanup_foreign_dir_instance_t :
  let ff := wfs (s_w (fst (run (sys0f 0 0 extf_foreign_k) (OStart extf_k :: extf_ops ++ [OStop])))) in
  exists keys : list key,
    let K i := kname extf_k 0 (nth i keys kd) in
    length keys = 3 /\ keys_ok keys
    /\ (forall x d, In (x, d) extf_foreign_k -> file_of ff x = Some (plain_file 0 d))
    /\ (exists fl, file_of ff (K 2) = Some fl /\ fdata fl = bs "ghij" /\ fgz fl = 0%N /\ fdir fl = false)
    /\ (exists fl, file_of ff (gz_name (K 1)) = Some fl /\ fdata fl = bs "ef" /\ fgz fl = 1%N /\ fdir fl = false)
    /\ (exists fl, file_of ff (cname extf_k) = Some fl /\ fdata fl = bs "k" /\ fgz fl = 0%N /\ fdir fl = false)
    /\ file_of ff (K 0) = None /\ file_of ff (gz_name (K 0)) = None /\ file_of ff (K 1) = None.
Proof.
  intros ff. destruct cleanup_foreign_hypotheses_t as (H1 & H2 & H3 & H4 & H5 & H6 & H7 & H8 & H9 & H10).
  assert (Ea : a_run None extf_ops (snd (run (fst (step (sys0 0 0) (OStart extf_k))) extf_ops))
               = Some ([bs "abcd"; bs "ef"; bs "ghij"], bs "k")) by (vm_compute; reflexivity).
  pose proof (timestamps_cleanup_foreign_dir extf_k (CSize 3) (KLogGz 1 1) 1 1 0 0 extf_foreign_k extf_ops _ _
                H1 eq_refl H2 H3 H4 H5 H6 H7 H8 Ea H9 H10) as T.
  cbv zeta in T. fold ff in T. change (ts_e extf_k 0) with 0%Z in T.
  change (length [bs "abcd"; bs "ef"; bs "ghij"]) with 3 in T. cbn [Nat.sub Nat.add] in T.
  destruct T as (_ & keys & Hl & Hko & _ & _ & F & P & A & C & O & O').
  exists keys. cbv zeta. split; [exact Hl|]. split; [exact Hko|].
  split; [exact F|]. split; [exact (P 2 ltac:(lia))|]. split; [exact (A 1 ltac:(lia))|]. split; [exact C|].
  split; [exact (proj1 (O 0 ltac:(lia)))|]. split; [exact (proj2 (O 0 ltac:(lia)))|]. exact (O' 1 ltac:(lia)).
Qed.

(* THE BOUNDARY of "foreign" (model behaviour worth knowing): files that this writer did not write but whose names follow the
   pattern are members (ts_member = true), so the theorem does not speak about them - and the cleanup does act on them:
   (1) "a_r1960-01-01_00-00-00.log", a time stamp before the epoch, is the oldest family file: after the first record it is
       still there, after the first rotation it has been COMPRESSED (one plain closed file and one archive are kept), after
       the second rotation it has been REMOVED;
   (2) a stranger's "a_rCURRENT.log" is the current file: with append the writer CONTINUES it ("abcd" is appended to the
       stranger's "w"), and the first rotation closes it under the time stamp of its creation. *)
Example member_file_is_cleaned_t :
  let run_with n ops := ex_snap (fst (run (sys0f 0 0 [(bs n, bs "w")]) (OStart extf_k :: ops ++ [OStop]))) in
  ts_member extf_k (bs "a_r1960-01-01_00-00-00.log") = true /\ ts_member extf_k (bs "a_rCURRENT.log") = true
  /\ run_with "a_r1960-01-01_00-00-00.log" (firstn 1 extf_ops)
     = [ (bs "a_r1960-01-01_00-00-00.log", 0%N, bs "w"); (bs "a_rCURRENT.log", 0%N, bs "abcd") ]
  /\ run_with "a_r1960-01-01_00-00-00.log" (firstn 2 extf_ops)
     = [ (bs "a_r1960-01-01_00-00-00.log.gz", 1%N, bs "w"); (bs "a_r1970-01-01_00-00-00.log", 0%N, bs "abcd");
         (bs "a_rCURRENT.log", 0%N, bs "ef") ]
  /\ run_with "a_r1960-01-01_00-00-00.log" (firstn 3 extf_ops)
     = [ (bs "a_r1970-01-01_00-00-00.log.gz", 1%N, bs "abcd"); (bs "a_r1970-01-01_00-00-00.restart-0000.log", 0%N, bs "ef");
         (bs "a_rCURRENT.log", 0%N, bs "") ]
  /\ run_with "a_rCURRENT.log" (firstn 2 extf_ops)
     = [ (bs "a_r1970-01-01_00-00-00.log", 0%N, bs "wabcd"); (bs "a_rCURRENT.log", 0%N, bs "ef") ].
Proof. vm_compute. repeat split; reflexivity. Qed.
