(* C19 with rotation and cleanup: the model does what FaultCleanupSpec.simk (KeepLogFiles n) and FaultGzSpec.simg (all
   three strategies) say, for every fault oracle and every list of records.
   The refinement is proved once, for the compressing cleanup with its limits ll (plain files) and ll + cl (all closed
   files).  KeepLogFiles n is the case ll = n, cl = 0, in which no archive is ever made: on a state without archives the
   step of FaultGzSpec is the step of FaultCleanupSpec (gstep_embed).  The theorems on simg are in FaultGz.v. *)
Require Import FL.Flw.TsReader FL.Flw.ListingExact.
Require Import FL.Base.Bytes FL.Base.BytesFacts FL.Base.PathName FL.Fs.Fs FL.Names.FileSpec FL.Names.SortFacts FL.Flw.Model
  FL.Flw.ModelFacts FL.Flw.NumFs FL.Flw.NumInv FL.Flw.Run FL.Flw.NumRun FL.Flw.NumListing FL.Flw.NumRestart FL.Flw.KillFacts FL.Flw.NumKill
  FL.Flw.FaultFacts FL.Flw.FaultRotSpec FL.Flw.FaultRotation FL.Flw.CleanupFacts FL.Flw.NumCleanupNames FL.Flw.NumCleanupStep
  FL.Flw.NumCleanupRun FL.Flw.NumCleanupKillListing FL.Flw.FaultCleanupSpec FL.Flw.FaultGzSpec.
From Coq Require Import ZifyN ZifyNat ZifyBool Permutation Sorted.
Open Scope nat_scope.

(* ------------------------------------------------------------------ ascending lists of (index, content) *)
Definition asc (cl : cdir) : Prop := StronglySorted lt (List.map fst cl).

Lemma ssorted_app {A} (R : A -> A -> Prop) (a b : list A) :
  StronglySorted R (a ++ b) <-> StronglySorted R a /\ StronglySorted R b /\ (forall x y, In x a -> In y b -> R x y).
Proof.
  induction a as [|x a IH]; cbn [app].
  - split; [intros H; split; [constructor | split; [exact H | intros x y []]] | intros [_ [H _]]; exact H].
  - split.
    + intros H. inversion H as [|? ? H1 H2]; subst. apply IH in H1. destruct H1 as [Sa [Sb Hab]].
      rewrite Forall_forall in H2. split.
      * constructor; [exact Sa|]. apply Forall_forall. intros y Hy. apply H2. apply in_or_app. left. exact Hy.
      * split; [exact Sb|]. intros u v [<-|Hu] Hv; [apply H2; apply in_or_app; right; exact Hv | apply Hab; assumption].
    + intros [Sa [Sb Hab]]. inversion Sa as [|? ? H1 H2]; subst. constructor.
      * apply IH. split; [exact H1|]. split; [exact Sb|]. intros u v Hu Hv. apply Hab; [right; exact Hu | exact Hv].
      * rewrite Forall_forall in *. intros y Hy. apply in_app_or in Hy. destruct Hy as [Hy|Hy]; [apply H2; exact Hy | apply Hab; [left; reflexivity | exact Hy]].
Qed.

Lemma ssorted_map {A B} (R : A -> A -> Prop) (Q : B -> B -> Prop) (g : A -> B) l :
  (forall x y, R x y -> Q (g x) (g y)) -> StronglySorted R l -> StronglySorted Q (List.map g l).
Proof.
  intros H. induction 1 as [|x l S IH F]; cbn [List.map]; constructor; [exact IH|].
  rewrite Forall_forall in *. intros y Hy. apply in_map_iff in Hy. destruct Hy as [z [<- Hz]]. apply H, F, Hz.
Qed.

Lemma asc_nodup cl : asc cl -> NoDup (List.map fst cl).
Proof.
  unfold asc. induction 1 as [|x l S IH F]; constructor; [|exact IH].
  intros Hin. rewrite Forall_forall in F. specialize (F x Hin). lia.
Qed.

Lemma asc_unique cl i d d' : asc cl -> In (i, d) cl -> In (i, d') cl -> d = d'.
Proof.
  intros A. apply asc_nodup in A. induction cl as [|[j e] cl IH]; intros H1 H2; [destruct H1|].
  cbn [List.map fst] in A. inversion A as [|? ? Hn Hr]; subst.
  destruct H1 as [E1|H1], H2 as [E2|H2].
  - congruence.
  - injection E1 as -> ->. exfalso. apply Hn. apply in_map_iff. exists (i, d'). split; [reflexivity | exact H2].
  - injection E2 as -> ->. exfalso. apply Hn. apply in_map_iff. exists (i, d). split; [reflexivity | exact H1].
  - apply IH; assumption.
Qed.

Lemma asc_snoc cl idx d : asc cl -> (forall i e, In (i, e) cl -> i < idx) -> asc (cl ++ [(idx, d)]).
Proof.
  intros A H. unfold asc. rewrite map_app. apply ssorted_app. split; [exact A|]. split; [repeat constructor|].
  intros x y Hx [<-|[]]. apply in_map_iff in Hx. destruct Hx as [[i e] [<- Hi]]. exact (H i e Hi).
Qed.

Lemma asc_drop A x B : asc (A ++ x :: B) -> asc (A ++ B).
Proof.
  unfold asc. rewrite !map_app. cbn [List.map]. rewrite !ssorted_app. intros [SA [SB H]].
  inversion SB as [|? ? SB' _]; subst. split; [exact SA|]. split; [exact SB'|].
  intros u v Hu Hv. apply H; [exact Hu | right; exact Hv].
Qed.

Lemma asc_mid_notin A (i : nat) (d : bytes) B e : asc (A ++ (i, d) :: B) -> ~ In (i, e) (A ++ B).
Proof.
  intros S H. apply asc_nodup in S. rewrite map_app in S. cbn [List.map fst] in S. apply NoDup_remove_2 in S. apply S.
  rewrite <- map_app. apply in_map_iff. exists (i, e). split; [reflexivity | exact H].
Qed.

Lemma next_idx_snoc cl i d : next_idx (cl ++ [(i, d)]) = S i.
Proof. unfold next_idx. rewrite fold_left_app. reflexivity. Qed.

Lemma asc_below_next cl : asc cl -> forall i d, In (i, d) cl -> i < next_idx cl.
Proof.
  destruct cl as [|p cl] using rev_ind; [intros _ i d []|]. destruct p as [j e]. intros A i d Hin.
  rewrite next_idx_snoc. unfold asc in A. rewrite map_app in A. apply ssorted_app in A. destruct A as [_ [_ H]].
  apply in_app_or in Hin. destruct Hin as [Hin|[E|[]]]; [|injection E as -> _; lia].
  assert (i < j); [|lia]. apply H; [|left; reflexivity]. apply in_map_iff. exists (i, d). split; [reflexivity | exact Hin].
Qed.

Lemma next_idx_incl cl1 cl2 : asc cl1 -> (forall p, In p cl2 -> In p cl1) -> next_idx cl2 <= next_idx cl1.
Proof.
  intros A H. destruct cl2 as [|[j e] cl2] using rev_ind; [unfold next_idx at 1; cbn; lia|]. rewrite next_idx_snoc.
  apply (asc_below_next cl1 A j e). apply H. apply in_or_app. right. left. reflexivity.
Qed.

Lemma asc_filter (P : nat * bytes -> bool) (l : cdir) : asc l -> asc (filter P l).
Proof.
  unfold asc. induction l as [|x l IH]; cbn [filter List.map]; intros H; [constructor|].
  inversion H as [|? ? H1 H2]; subst. destruct (P x); cbn [List.map]; [|apply IH; exact H1].
  constructor; [apply IH; exact H1|]. rewrite Forall_forall in *. intros y Hy. apply H2.
  apply in_map_iff in Hy. destruct Hy as [p [<- Hp]]. apply filter_In in Hp. apply in_map. apply Hp.
Qed.
Lemma asc_deli i l : asc l -> asc (deli i l).
Proof. apply asc_filter. Qed.
Lemma asc_insi (q : nat * bytes) l : asc l -> memi (fst q) l = false -> asc (insi q l).
Proof.
  unfold asc. induction l as [|x l IH]; cbn [insi List.map]; intros H M; [repeat constructor|].
  inversion H as [|? ? H1 H2]; subst. rewrite Forall_forall in H2.
  assert (Hne : fst x <> fst q).
  { intros E. apply memi_false with (d := snd x) in M. apply M. left. destruct x; cbn [fst snd] in *. subst. reflexivity. }
  assert (M' : memi (fst q) l = false).
  { apply memi_false. intros d Hd. apply memi_false with (d := d) in M. apply M. right. exact Hd. }
  destruct (Nat.ltb_spec (fst q) (fst x)) as [Hlt|Hge]; cbn [List.map].
  - constructor; [exact H|]. apply Forall_forall. intros y [<-|Hy]; [exact Hlt | specialize (H2 y Hy); lia].
  - constructor; [apply IH; assumption|]. apply Forall_forall. intros y Hy. apply in_map_iff in Hy. destruct Hy as [p [<- Hp]].
    apply insi_in in Hp. destruct Hp as [->|Hp]; [lia | apply H2; apply in_map; exact Hp].
Qed.

Lemma asc_app_notin A (i : nat) (d e : bytes) : asc (A ++ [(i, d)]) -> ~ In (i, e) A.
Proof. intros S H. apply (asc_mid_notin A i d [] e); rewrite ?app_nil_r; assumption. Qed.

Section Dir.
Variable c : config.
Hypothesis Hsfx : sfx_ok (c_spec c).

(* the directory holds exactly: the closed files r<i> (plain, with their content), and rCURRENT iff ocur names its inode *)
Record gdir (f : fs) (cl : cdir) (ocur : option nat) : Prop := {
  gd_wf : fs_wf f;
  gd_nd : nodup_names f;
  gd_asc : asc cl;
  gd_files : forall i d, In (i, d) cl -> exists j, lookup f (rname c i) = Some j /\ plain (inode f j) /\ content f j = d;
  gd_cur : match ocur with
           | Some j => lookup f (cname c) = Some j /\ plain (inode f j)
           | None => lookup f (cname c) = None
           end;
  gd_only : forall nm j, lookup f nm = Some j -> nm = cname c \/ exists i d, In (i, d) cl /\ nm = rname c i }.

Lemma gdir_fresh f cl o idx : gdir f cl o -> (forall i e, In (i, e) cl -> i < idx) -> lookup f (rname c idx) = None.
Proof.
  intros G H. destruct (lookup f (rname c idx)) as [j|] eqn:E; [exfalso | reflexivity].
  destruct (gd_only _ _ _ G _ _ E) as [X|(i & d & Hi & X)].
  - exact (rname_not_cname _ _ X).
  - apply rname_inj in X. subst i. specialize (H _ _ Hi). lia.
Qed.

Lemma plain_with_data fl d : plain fl -> plain (with_data fl d).
Proof. intros [A B]. split; assumption. Qed.

(* bytes are appended to the file with inode j, which is named nmj *)
Lemma append_other f j b nmj nm k : fs_wf f -> lookup f nmj = Some j -> lookup f nm = Some k -> nm <> nmj ->
  inode (append_ino f j b) k = inode f k.
Proof.
  intros W Lj Lk Hne. rewrite inode_append by (apply (wf_bound _ W _ _ Lj)).
  destruct (Nat.eqb_spec k j) as [->|_]; [|reflexivity]. exfalso. apply Hne. exact (wf_inj _ W _ _ _ Lk Lj).
Qed.
Lemma append_self f j b : j < length (inodes f) ->
  inode (append_ino f j b) j = with_data (inode f j) (content f j ++ b) /\ content (append_ino f j b) j = content f j ++ b.
Proof.
  intros H. split; [rewrite inode_append, Nat.eqb_refl by exact H; reflexivity | rewrite content_append, Nat.eqb_refl by exact H; reflexivity].
Qed.

End Dir.

Section XDir.
Variable c : config.
Hypothesis Hsfx : sfx_ok (c_spec c).

(* exactly: the plain closed files r<i>, the complete archives r<i>.gz with what gunzip yields, rCURRENT iff ocur *)
Record xdir (f : fs) (pl ar : cdir) (ocur : option nat) : Prop := {
  xd_wf : fs_wf f;
  xd_nd : nodup_names f;
  xd_ascp : asc pl;
  xd_asca : asc ar;
  xd_plain : forall i d, In (i, d) pl -> exists j, lookup f (rname c i) = Some j /\ plain (inode f j) /\ content f j = d;
  xd_arch : forall i g, In (i, g) ar ->
      exists j, lookup f (gname c i) = Some j /\ fdata (inode f j) = g /\ fgz (inode f j) = 1%N /\ fdir (inode f j) = false;
  xd_cur : match ocur with
           | Some j => lookup f (cname c) = Some j /\ plain (inode f j)
           | None => lookup f (cname c) = None
           end;
  xd_only : forall nm j, lookup f nm = Some j ->
      nm = cname c \/ (exists i d, In (i, d) pl /\ nm = rname c i) \/ (exists i g, In (i, g) ar /\ nm = gname c i) }.

Lemma cname_ne_rname i : cname c <> rname c i.
Proof. intros X. symmetry in X. exact (rname_not_cname _ _ X). Qed.
Lemma cname_ne_gname i : cname c <> gname c i.
Proof. intros X. symmetry in X. exact (gname_not_cname _ _ X). Qed.
Lemma rname_ne_gname i j : rname c i <> gname c j.
Proof. intros X. symmetry in X. exact (gname_ne_rname _ _ _ X). Qed.

Lemma xdir_fresh_plain f pl ar o idx : xdir f pl ar o -> (forall i e, In (i, e) pl -> i < idx) -> lookup f (rname c idx) = None.
Proof.
  intros G H. destruct (lookup f (rname c idx)) as [j|] eqn:E; [exfalso | reflexivity].
  destruct (xd_only _ _ _ _ G _ _ E) as [X|[(i & d & Hi & X)|(i & g & Hi & X)]].
  - exact (rname_not_cname _ _ X).
  - apply rname_inj in X. subst i. specialize (H _ _ Hi). lia.
  - exact (rname_ne_gname _ _ X).
Qed.
Lemma xdir_fresh_arch f pl ar o i : xdir f pl ar o -> memi i ar = false -> lookup f (gname c i) = None.
Proof.
  intros G H. destruct (lookup f (gname c i)) as [j|] eqn:E; [exfalso | reflexivity].
  destruct (xd_only _ _ _ _ G _ _ E) as [X|[(i' & d & Hi & X)|(i' & g & Hi & X)]].
  - exact (gname_not_cname _ _ X).
  - exact (gname_ne_rname _ _ _ X).
  - apply gname_inj in X. subst i'. apply memi_false with (d := g) in H. exact (H Hi).
Qed.

Lemma xdir_append_frame f (pl : cdir) j b nmj : fs_wf f -> lookup f nmj = Some j ->
  (forall i d, In (i, d) pl -> rname c i <> nmj ->
     (exists k, lookup f (rname c i) = Some k /\ plain (inode f k) /\ content f k = d) ->
     exists k, lookup (append_ino f j b) (rname c i) = Some k /\ plain (inode (append_ino f j b) k) /\ content (append_ino f j b) k = d)
  /\ (forall i g, gname c i <> nmj ->
     (exists k, lookup f (gname c i) = Some k /\ fdata (inode f k) = g /\ fgz (inode f k) = 1%N /\ fdir (inode f k) = false) ->
     exists k, lookup (append_ino f j b) (gname c i) = Some k /\ fdata (inode (append_ino f j b) k) = g
               /\ fgz (inode (append_ino f j b) k) = 1%N /\ fdir (inode (append_ino f j b) k) = false).
Proof.
  intros W Lj. split.
  - intros i d _ Hne (k & Lk & Pk & Ck). exists k. rewrite lookup_append. split; [exact Lk|].
    unfold content. rewrite (append_other f j b nmj (rname c i) k W Lj Lk Hne). split; assumption.
  - intros i g Hne (k & Lk & Dk & Gk & Fk). exists k. rewrite lookup_append. split; [exact Lk|].
    rewrite (append_other f j b nmj (gname c i) k W Lj Lk Hne). repeat split; assumption.
Qed.

(* the writer appends to rCURRENT *)
Lemma xdir_append_cur f pl ar j b : xdir f pl ar (Some j) ->
  xdir (append_ino f j b) pl ar (Some j) /\ content (append_ino f j b) j = content f j ++ b.
Proof.
  intros G. pose proof (xd_wf _ _ _ _ G) as W. destruct (xd_cur _ _ _ _ G) as [Lc Pc].
  pose proof (wf_bound _ W _ _ Lc) as Hj. destruct (append_self f j b Hj) as [Ij Cj]. split; [|exact Cj].
  destruct (xdir_append_frame f pl j b (cname c) W Lc) as [FP FA]. constructor.
  - apply wf_append. exact W.
  - apply nd_append. exact (xd_nd _ _ _ _ G).
  - exact (xd_ascp _ _ _ _ G).
  - exact (xd_asca _ _ _ _ G).
  - intros i d Hi. apply (FP i d Hi (rname_not_cname c i)). exact (xd_plain _ _ _ _ G i d Hi).
  - intros i g Hi. apply (FA i g (gname_not_cname c i)). exact (xd_arch _ _ _ _ G i g Hi).
  - rewrite lookup_append. split; [exact Lc|]. rewrite Ij. apply plain_with_data. exact Pc.
  - intros nm k. rewrite lookup_append. apply (xd_only _ _ _ _ G).
Qed.

(* the writer appends to the closed file r<idx> (there is no rCURRENT) *)
Lemma xdir_append_old f pl ar idx d j b : xdir f (pl ++ [(idx, d)]) ar None -> lookup f (rname c idx) = Some j ->
  xdir (append_ino f j b) (pl ++ [(idx, d ++ b)]) ar None.
Proof.
  intros G Lj. pose proof (xd_wf _ _ _ _ G) as W. pose proof (wf_bound _ W _ _ Lj) as Hj.
  destruct (append_self f j b Hj) as [Ij Cj].
  assert (Hd : content f j = d /\ plain (inode f j)).
  { destruct (xd_plain _ _ _ _ G idx d) as (k & Lk & Pk & Ck); [apply in_or_app; right; left; reflexivity|].
    assert (k = j) by congruence. subst k. split; assumption. }
  destruct Hd as [Hd Pj]. destruct (xdir_append_frame f (pl ++ [(idx, d)]) j b (rname c idx) W Lj) as [FP FA]. constructor.
  - apply wf_append. exact W.
  - apply nd_append. exact (xd_nd _ _ _ _ G).
  - pose proof (xd_ascp _ _ _ _ G) as A. unfold asc in *. rewrite map_app in *. exact A.
  - exact (xd_asca _ _ _ _ G).
  - intros i e Hi. apply in_app_or in Hi. destruct Hi as [Hi|[E|[]]].
    + assert (Hi' : In (i, e) (pl ++ [(idx, d)])) by (apply in_or_app; left; exact Hi). apply (FP i e Hi'); [|exact (xd_plain _ _ _ _ G i e Hi')].
      intros X. apply rname_inj in X. subst i. exact (asc_app_notin pl idx d e (xd_ascp _ _ _ _ G) Hi).
    + injection E as <- <-. exists j. rewrite lookup_append. split; [exact Lj|]. rewrite Ij, Cj, Hd.
      split; [apply plain_with_data; exact Pj | reflexivity].
  - intros i g Hi. apply (FA i g (gname_ne_rname c i idx)). exact (xd_arch _ _ _ _ G i g Hi).
  - rewrite lookup_append. exact (xd_cur _ _ _ _ G).
  - intros nm k. rewrite lookup_append. intros L. destruct (xd_only _ _ _ _ G _ _ L) as [X|[(i & e & Hi & X)|X]]; [left; exact X | | right; right; exact X].
    right. left. apply in_app_or in Hi. destruct Hi as [Hi|[E|[]]].
    + exists i, e. split; [apply in_or_app; left; exact Hi | exact X].
    + injection E as <- <-. exists idx, (d ++ b). split; [apply in_or_app; right; left; reflexivity | exact X].
Qed.

(* rCURRENT is renamed to r<idx> *)
Lemma xdir_rename f pl ar j idx : xdir f pl ar (Some j) -> (forall i e, In (i, e) pl -> i < idx) ->
  exists f1, rename f (cname c) (rname c idx) = Some f1 /\ inodes f1 = inodes f
    /\ xdir f1 (pl ++ [(idx, content f j)]) ar None /\ lookup f1 (rname c idx) = Some j.
Proof.
  intros G H. pose proof (xd_wf _ _ _ _ G) as W. destruct (xd_cur _ _ _ _ G) as [Lc Pc].
  destruct (rename_spec f (cname c) (rname c idx) j (cname_ne_rname idx) Lc) as (f1 & Er & Ei & Lb & La & Lo).
  exists f1. split; [exact Er|]. split; [exact Ei|]. split; [|exact Lb].
  assert (In1 : forall k, inode f1 k = inode f k) by (intros k; unfold inode; rewrite Ei; reflexivity).
  constructor.
  - exact (wf_rename _ _ _ _ W Er).
  - exact (nd_rename _ _ _ _ Er (xd_nd _ _ _ _ G)).
  - apply asc_snoc; [exact (xd_ascp _ _ _ _ G) | exact H].
  - exact (xd_asca _ _ _ _ G).
  - intros i e Hi. apply in_app_or in Hi. destruct Hi as [Hi|[E|[]]].
    + destruct (xd_plain _ _ _ _ G i e Hi) as (k & Lk & Pk & Ck). exists k.
      rewrite Lo; [|apply rname_not_cname | intros X; apply rname_inj in X; specialize (H _ _ Hi); lia].
      unfold content. rewrite In1. split; [exact Lk|]. split; assumption.
    + injection E as <- <-. exists j. unfold content. rewrite In1. split; [exact Lb|]. split; [exact Pc | reflexivity].
  - intros i g Hi. destruct (xd_arch _ _ _ _ G i g Hi) as (k & Lk & Dk & Gk & Fk). exists k.
    rewrite Lo by (apply gname_not_cname || apply gname_ne_rname). rewrite In1. repeat split; assumption.
  - exact La.
  - intros nm k L. destruct (beq_spec nm (rname c idx)) as [->|N1].
    + right. left. exists idx, (content f j). split; [apply in_or_app; right; left; reflexivity | reflexivity].
    + destruct (beq_spec nm (cname c)) as [->|N2]; [rewrite La in L; discriminate|].
      rewrite Lo in L by assumption. destruct (xd_only _ _ _ _ G _ _ L) as [X|[(i & e & Hi & X)|X]]; [contradiction | | right; right; exact X].
      right. left. exists i, e. split; [apply in_or_app; left; exact Hi | exact X].
Qed.

(* a new rCURRENT is created *)
Lemma xdir_create f pl ar now : xdir f pl ar None ->
  xdir (fst (create_file f (cname c) 0%N now)) pl ar (Some (snd (create_file f (cname c) 0%N now)))
  /\ content (fst (create_file f (cname c) 0%N now)) (snd (create_file f (cname c) 0%N now)) = [].
Proof.
  intros G. pose proof (xd_wf _ _ _ _ G) as W. pose proof (xd_cur _ _ _ _ G) as Lc. cbn beta iota in Lc.
  pose proof (create_file_spec f (cname c) 0%N now) as CS. pose proof (wf_create f (cname c) 0%N now W Lc) as W2.
  pose proof (nd_create f (cname c) 0%N now Lc (xd_nd _ _ _ _ G)) as N2.
  destruct (create_file f (cname c) 0%N now) as [f2 new]. cbn [fst snd] in *. destruct CS as [Enew [Hino [Lnew Lo]]].
  assert (Inew : inode f2 new = {| fdata := []; fgz := 0%N; fborn := now; fdir := false |}).
  { unfold inode. rewrite Hino, Enew, inode_app_new. reflexivity. }
  assert (Iold : forall k, k < length (inodes f) -> inode f2 k = inode f k).
  { intros k Hk. unfold inode. rewrite Hino, inode_app_old by assumption. reflexivity. }
  split; [|unfold content; rewrite Inew; reflexivity]. constructor.
  - exact W2.
  - exact N2.
  - exact (xd_ascp _ _ _ _ G).
  - exact (xd_asca _ _ _ _ G).
  - intros i d Hi. destruct (xd_plain _ _ _ _ G i d Hi) as (k & Lk & Pk & Ck). exists k. rewrite Lo by apply rname_not_cname.
    unfold content. rewrite Iold by (apply (wf_bound _ W _ _ Lk)). split; [exact Lk|]. split; assumption.
  - intros i g Hi. destruct (xd_arch _ _ _ _ G i g Hi) as (k & Lk & Dk & Gk & Fk). exists k. rewrite Lo by apply gname_not_cname.
    rewrite Iold by (apply (wf_bound _ W _ _ Lk)). repeat split; assumption.
  - split; [exact Lnew|]. rewrite Inew. split; reflexivity.
  - intros nm k L. destruct (beq_spec nm (cname c)) as [->|N1]; [left; reflexivity|]. rewrite Lo in L by exact N1.
    exact (xd_only _ _ _ _ G _ _ L).
Qed.

Lemma xdir_unlink_plain f pl ar o i : xdir f pl ar o -> xdir (unlink f (rname c i)) (deli i pl) ar o.
Proof.
  intros G. pose proof (xd_wf _ _ _ _ G) as W. destruct (unlink_spec f (rname c i)) as (UI & UN & UO).
  assert (In1 : forall k, inode (unlink f (rname c i)) k = inode f k) by (intros k; unfold inode; rewrite UI; reflexivity).
  constructor.
  - apply wf_unlink. exact W.
  - apply nd_unlink. exact (xd_nd _ _ _ _ G).
  - apply asc_deli. exact (xd_ascp _ _ _ _ G).
  - exact (xd_asca _ _ _ _ G).
  - intros i' e Hi. apply deli_in in Hi. destruct Hi as [Hi Hne]. cbn [fst] in Hne.
    destruct (xd_plain _ _ _ _ G i' e Hi) as (k & Lk & Pk & Ck).
    exists k. rewrite UO by (intros X; apply rname_inj in X; contradiction). unfold content. rewrite In1. split; [exact Lk|]. split; assumption.
  - intros i' g Hi. destruct (xd_arch _ _ _ _ G i' g Hi) as (k & Lk & Dk & Gk & Fk). exists k. rewrite UO by apply gname_ne_rname.
    rewrite In1. repeat split; assumption.
  - pose proof (xd_cur _ _ _ _ G) as Hc. rewrite UO by apply cname_ne_rname. destruct o as [j|]; [rewrite In1|]; exact Hc.
  - intros nm k L. destruct (beq_spec nm (rname c i)) as [->|N1]; [rewrite UN in L; discriminate|]. rewrite UO in L by exact N1.
    destruct (xd_only _ _ _ _ G _ _ L) as [X|[(i' & e & Hi & X)|X]]; [left; exact X | | right; right; exact X].
    right. left. exists i', e. split; [|exact X]. apply deli_in. split; [exact Hi|]. cbn [fst]. intros ->. contradiction.
Qed.

Lemma xdir_unlink_arch f pl ar o i : xdir f pl ar o -> xdir (unlink f (gname c i)) pl (deli i ar) o.
Proof.
  intros G. pose proof (xd_wf _ _ _ _ G) as W. destruct (unlink_spec f (gname c i)) as (UI & UN & UO).
  assert (In1 : forall k, inode (unlink f (gname c i)) k = inode f k) by (intros k; unfold inode; rewrite UI; reflexivity).
  constructor.
  - apply wf_unlink. exact W.
  - apply nd_unlink. exact (xd_nd _ _ _ _ G).
  - exact (xd_ascp _ _ _ _ G).
  - apply asc_deli. exact (xd_asca _ _ _ _ G).
  - intros i' e Hi. destruct (xd_plain _ _ _ _ G i' e Hi) as (k & Lk & Pk & Ck). exists k. rewrite UO by apply rname_ne_gname.
    unfold content. rewrite In1. split; [exact Lk|]. split; assumption.
  - intros i' g Hi. apply deli_in in Hi. destruct Hi as [Hi Hne]. cbn [fst] in Hne.
    destruct (xd_arch _ _ _ _ G i' g Hi) as (k & Lk & Dk & Gk & Fk). exists k.
    rewrite UO by (intros X; apply gname_inj in X; contradiction). rewrite In1. repeat split; assumption.
  - pose proof (xd_cur _ _ _ _ G) as Hc. rewrite UO by apply cname_ne_gname. destruct o as [j|]; [rewrite In1|]; exact Hc.
  - intros nm k L. destruct (beq_spec nm (gname c i)) as [->|N1]; [rewrite UN in L; discriminate|]. rewrite UO in L by exact N1.
    destruct (xd_only _ _ _ _ G _ _ L) as [X|[X|(i' & g & Hi & X)]]; [left; exact X | right; left; exact X|].
    right. right. exists i', g. split; [|exact X]. apply deli_in. split; [exact Hi|]. cbn [fst]. intros ->. contradiction.
Qed.

Lemma xdir_add_arch f pl ar o i g now : xdir f pl ar o -> memi i ar = false ->
  let f1 := fst (open_trunc f (gname c i) 2%N now) in
  let ino := snd (open_trunc f (gname c i) 2%N now) in
  xdir (set_gz f1 ino 1%N g) pl (insi (i, g) ar) o
  /\ (forall k, k < length (inodes f) -> inode (set_gz f1 ino 1%N g) k = inode f k)
  /\ (forall nm, nm <> gname c i -> lookup (set_gz f1 ino 1%N g) nm = lookup f nm).
Proof.
  intros G M. cbv zeta. pose proof (xd_wf _ _ _ _ G) as W. pose proof (xdir_fresh_arch f pl ar o i G M) as Lg.
  rewrite (open_trunc_fresh f (gname c i) 2%N now Lg).
  pose proof (create_file_spec f (gname c i) 2%N now) as CS. pose proof (wf_create f (gname c i) 2%N now W Lg) as W2.
  pose proof (nd_create f (gname c i) 2%N now Lg (xd_nd _ _ _ _ G)) as N2.
  destruct (create_file f (gname c i) 2%N now) as [f2 new]. cbn [fst snd] in *. destruct CS as [Enew [Hino [Lnew Lo]]].
  assert (Hnew : new < length (inodes f2)) by (rewrite Hino, app_length, Enew; cbn [length]; lia).
  destruct (set_gz_spec f2 new 1%N g Hnew) as (SL & SLen & SI & SO).
  assert (Iold : forall k, k < length (inodes f) -> inode (set_gz f2 new 1%N g) k = inode f k).
  { intros k Hk. rewrite SO by lia. unfold inode. rewrite Hino, inode_app_old by assumption. reflexivity. }
  assert (Lold : forall nm, nm <> gname c i -> lookup (set_gz f2 new 1%N g) nm = lookup f nm).
  { intros nm Hn. rewrite SL. apply Lo. exact Hn. }
  split; [|split; assumption]. constructor.
  - apply wf_set_gz. exact W2.
  - apply nd_set_gz. exact N2.
  - exact (xd_ascp _ _ _ _ G).
  - apply asc_insi; [exact (xd_asca _ _ _ _ G) | exact M].
  - intros i' e Hi. destruct (xd_plain _ _ _ _ G i' e Hi) as (k & Lk & Pk & Ck). exists k. rewrite Lold by apply rname_ne_gname.
    unfold content. rewrite Iold by (apply (wf_bound _ W _ _ Lk)). split; [exact Lk|]. split; assumption.
  - intros i' g' Hi. apply insi_in in Hi. destruct Hi as [E|Hi].
    + injection E as -> ->. exists new. rewrite SL, SI. cbn [fdata fgz fdir]. repeat split. exact Lnew.
    + destruct (xd_arch _ _ _ _ G i' g' Hi) as (k & Lk & Dk & Gk & Fk). exists k.
      rewrite Lold by (intros X; apply gname_inj in X; subst i'; apply memi_false with (d := g') in M; exact (M Hi)).
      rewrite Iold by (apply (wf_bound _ W _ _ Lk)). repeat split; assumption.
  - pose proof (xd_cur _ _ _ _ G) as Hc. rewrite Lold by apply cname_ne_gname. destruct o as [j|]; [|exact Hc].
    destruct Hc as [Lc Pc]. rewrite Iold by (apply (wf_bound _ W _ _ Lc)). split; assumption.
  - intros nm k L. destruct (beq_spec nm (gname c i)) as [->|N1].
    + right. right. exists i, g. split; [apply insi_in; left; reflexivity | reflexivity].
    + rewrite Lold in L by exact N1. destruct (xd_only _ _ _ _ G _ _ L) as [X|[X|(i' & g' & Hi & X)]]; [left; exact X | right; left; exact X|].
      right. right. exists i', g'. split; [apply insi_in; right; exact Hi | exact X].
Qed.
End XDir.

Lemma xdir_gdir c f cl o : xdir c f cl [] o -> gdir c f cl o.
Proof.
  intros G. constructor; [exact (xd_wf _ _ _ _ _ G) | exact (xd_nd _ _ _ _ _ G) | exact (xd_ascp _ _ _ _ _ G) | exact (xd_plain _ _ _ _ _ G)
    | exact (xd_cur _ _ _ _ _ G) |].
  intros nm j L. destruct (xd_only _ _ _ _ _ G nm j L) as [H|[H|(i & g & [] & _)]]; [left; exact H | right; exact H].
Qed.

Definition cur_is (f : fs) (ocur : option bytes) (o : option nat) : Prop :=
  match ocur, o with Some d, Some j => content f j = d | None, None => True | _, _ => False end.

(* ------------------------------------------------------------------ the listing of such a directory *)
Lemma next_idx_cases (cl : cdir) : (cl = [] /\ next_idx cl = 0) \/ exists j e, In (j, e) cl /\ next_idx cl = S j.
Proof.
  destruct cl as [|[j e] cl] using rev_ind; [left; split; reflexivity|]. right. exists j, e. rewrite next_idx_snoc.
  split; [apply in_or_app; right; left; reflexivity | reflexivity].
Qed.

Section Listing.
Variable c : config.
Hypothesis Hsfx : sfx_ok (c_spec c).
Variables (f : fs) (off : Z) (pl ar : cdir) (ocur : option nat).
Hypothesis G : xdir c f pl ar ocur.

Definition ename (e : lentry) : bytes := if fst e then gname c (fst (snd e)) else rname c (fst (snd e)).

Theorem list_log_gz_xdir : list_log_gz off (c_spec c) (fixed0 c) f IFNum = Some (List.map ename (g_listing pl ar)).
Proof.
  replace (List.map ename (g_listing pl ar))
    with (rev (List.map (rname c) (List.map fst pl)) ++ rev (List.map (gname c) (List.map fst ar)))
    by (unfold g_listing; rewrite map_app, !map_map, <- !map_rev; reflexivity).
  apply list_log_gz_sorted.
  - exact (xd_nd _ _ _ _ _ G).
  - apply (ssorted_map lt); [|exact (xd_ascp _ _ _ _ _ G)]. intros i j Hij. apply (key_le_number_any c i j false false Hsfx Hij).
  - apply (ssorted_map lt); [|exact (xd_asca _ _ _ _ _ G)]. intros i j Hij. unfold key_rel. rewrite <- !add_gz_gname.
    apply (key_le_number_any c i j true true Hsfx Hij).
  - apply FinFun.Injective_map_NoDup; [intros i j E; exact (rname_inj _ _ _ E) | apply asc_nodup; exact (xd_ascp _ _ _ _ _ G)].
  - apply FinFun.Injective_map_NoDup; [intros i j E; exact (gname_inj _ _ _ E) | apply asc_nodup; exact (xd_asca _ _ _ _ _ G)].
  - intros x. rewrite in_map_iff. split.
    + intros (i & <- & Hi). apply in_map_iff in Hi. destruct Hi as [[i' d] [E Hi]]. cbn [fst] in E. subst i'.
      destruct (xd_plain _ _ _ _ _ G i d Hi) as (j & Lj & [_ Dj] & _).
      split; [split; [eauto | split]|].
      * unfold is_reg_file, file_of. rewrite Lj, Dj. reflexivity.
      * rewrite rname_shape. apply is_prefix_under.
      * apply qf_rname.
    + intros [[[j Lj] _] Q]. destruct (xd_only _ _ _ _ _ G x j Lj) as [->|[(i & d & Hi & ->)|(i & g & Hi & ->)]].
      * rewrite qf_cname in Q. discriminate.
      * exists i. split; [reflexivity|]. apply in_map_iff. exists (i, d). split; [reflexivity | exact Hi].
      * rewrite qf_gname_plain in Q by exact Hsfx. discriminate.
  - intros x. rewrite in_map_iff. split.
    + intros (i & <- & Hi). apply in_map_iff in Hi. destruct Hi as [[i' g] [E Hi]]. cbn [fst] in E. subst i'.
      destruct (xd_arch _ _ _ _ _ G i g Hi) as (j & Lj & _ & _ & Dj).
      split; [split; [eauto | split]|].
      * unfold is_reg_file, file_of. rewrite Lj, Dj. reflexivity.
      * rewrite gname_app, rname_shape, <- app_assoc. apply is_prefix_under.
      * apply qf_gname_gz. exact Hsfx.
    + intros [[[j Lj] _] Q]. destruct (xd_only _ _ _ _ _ G x j Lj) as [->|[(i & d & Hi & ->)|(i & g & Hi & ->)]].
      * rewrite qf_cname in Q. discriminate.
      * rewrite qf_rname_gz in Q by exact Hsfx. discriminate.
      * exists i. split; [reflexivity|]. apply in_map_iff. exists (i, g). split; [reflexivity | exact Hi].
Qed.

Lemma ename_in_plain i : In (rname c i) (List.map ename (g_listing pl ar)) <-> exists d, In (i, d) pl.
Proof.
  unfold g_listing. rewrite map_app, !map_map, in_app_iff, !in_map_iff. split.
  - intros [[[j d] [E Hin]]|[[j d] [E Hin]]]; unfold ename in E; cbn [fst snd] in E.
    + apply rname_inj in E. subst j. apply in_rev in Hin. eauto.
    + exfalso. exact (gname_ne_rname _ _ _ E).
  - intros [d Hd]. left. exists (i, d). split; [reflexivity | apply -> in_rev; exact Hd].
Qed.

Theorem redundant_xdir :
  redundant_gz (List.map ename (g_listing pl ar)) = List.map (fun a => gname c (fst a)) (g_redundant pl ar).
Proof.
  unfold redundant_gz.
  assert (Gen : forall FL, filter (fun n => ext_is n gz_sfx && existsb (beq (set_extension n [])) FL) (List.map ename (g_listing pl ar))
                = List.map (fun a => gname c (fst a)) (filter (fun a => existsb (beq (rname c (fst a))) FL) (rev ar))).
  { intros FL. unfold g_listing. rewrite map_app, !map_map, filter_app.
    assert (E1 : filter (fun n => ext_is n gz_sfx && existsb (beq (set_extension n [])) FL) (List.map (fun x => ename (false, x)) (rev pl)) = []).
    { apply filter_all_false. intros x Hx. apply in_map_iff in Hx. destruct Hx as [p [<- _]]. unfold ename. cbn [fst snd].
      rewrite rname_not_gz by exact Hsfx. reflexivity. }
    rewrite E1. cbn [app]. unfold ename. cbn [fst snd]. induction (rev ar) as [|[i g] r IH]; [reflexivity|].
    cbn [List.map filter fst]. rewrite gname_is_gz, gname_strip. cbn [andb].
    destruct (existsb (beq (rname c i)) FL); cbn [List.map fst]; rewrite IH; reflexivity. }
  rewrite Gen. unfold g_redundant. f_equal. apply filter_ext. intros [i g]. cbn [fst].
  apply Bool.eq_iff_eq_true. rewrite memi_true, <- ename_in_plain, existsb_exists. split.
  - intros [y [Hy B]]. apply beq_eq in B. subst y. exact Hy.
  - intros H. exists (rname c i). split; [exact H | apply beq_refl].
Qed.

(* the index that index_for_rcurrent computes from the listing *)
Theorem highest_index_xdir :
  (forall i d, In (i, d) pl -> (N.of_nat i <= u32_max)%N) -> (forall i d, In (i, d) ar -> (N.of_nat i <= u32_max)%N) ->
  match get_highest_index off (c_spec c) (fixed0 c) f with
  | None => None
  | Some (Some i) => Some (i + 1)%N
  | Some None => Some 0%N
  end = Some (N.of_nat (g_next pl ar)).
Proof.
  intros Hbp Hba. unfold get_highest_index. rewrite list_log_gz_xdir.
  set (l := filter_map_opt (index_of_listed (fixed0 c)) (List.map ename (g_listing pl ar))).
  assert (Hl : forall v, In v l <-> exists i d, (In (i, d) pl \/ In (i, d) ar) /\ v = N.of_nat i).
  { intros v. unfold l. rewrite filter_map_opt_in. unfold g_listing. split.
    - intros (x & Hx & Ex). rewrite map_app, !map_map, in_app_iff, !in_map_iff in Hx.
      destruct Hx as [[[i d] [<- Hi]]|[[i d] [<- Hi]]]; unfold ename in Ex; cbn [fst snd] in Ex; apply in_rev in Hi.
      + rewrite index_of_rname in Ex by (exact (Hbp _ _ Hi)). injection Ex as <-. eauto.
      + rewrite index_of_gname in Ex by (exact (Hba _ _ Hi)). injection Ex as <-. eauto.
    - intros (i & d & [Hi|Hi] & ->).
      + exists (rname c i). split; [|apply index_of_rname; exact (Hbp _ _ Hi)].
        rewrite map_app, !map_map, in_app_iff. left. apply in_map_iff. exists (i, d). split; [reflexivity | apply -> in_rev; exact Hi].
      + exists (gname c i). split; [|apply index_of_gname; exact (Hba _ _ Hi)].
        rewrite map_app, !map_map, in_app_iff. right. apply in_map_iff. exists (i, d). split; [reflexivity | apply -> in_rev; exact Hi]. }
  pose proof (asc_below_next pl (xd_ascp _ _ _ _ _ G)) as Bp. pose proof (asc_below_next ar (xd_asca _ _ _ _ _ G)) as Ba.
  unfold g_next. pose proof (max_opt_spec l) as M. destruct (max_opt l) as [mx|].
  - destruct M as [Im Hm]. apply Hl in Im. destruct Im as (i & d & Hi & ->). f_equal.
    assert (Hup : i < Nat.max (next_idx pl) (next_idx ar)) by (destruct Hi as [Hi|Hi]; [specialize (Bp _ _ Hi) | specialize (Ba _ _ Hi)]; lia).
    assert (Hlo : Nat.max (next_idx pl) (next_idx ar) <= S i).
    { destruct (next_idx_cases pl) as [[_ Ep]|(j & e & Hj & Ep)], (next_idx_cases ar) as [[_ Ea]|(j' & e' & Hj' & Ea)]; rewrite Ep, Ea.
      - lia.
      - assert (N.of_nat j' <= N.of_nat i)%N by (apply Hm, Hl; eauto). lia.
      - assert (N.of_nat j <= N.of_nat i)%N by (apply Hm, Hl; eauto). lia.
      - assert (N.of_nat j <= N.of_nat i)%N by (apply Hm, Hl; eauto). assert (N.of_nat j' <= N.of_nat i)%N by (apply Hm, Hl; eauto). lia. }
    lia.
  - destruct (next_idx_cases pl) as [[_ Ep]|(j & e & Hj & Ep)].
    + destruct (next_idx_cases ar) as [[_ Ea]|(j' & e' & Hj' & Ea)]; [rewrite Ep, Ea; reflexivity|]. exfalso.
      assert (Hin : In (N.of_nat j') l) by (apply Hl; eauto). rewrite M in Hin. destruct Hin.
    + exfalso. assert (Hin : In (N.of_nat j) l) by (apply Hl; eauto). rewrite M in Hin. destruct Hin.
Qed.
End Listing.

Lemma compress_file_fw q fl n src : quiet q -> fs_wf (wfs q) ->
  lookup (wfs q) (gz_name n) = None -> lookup (wfs q) n = Some src ->
  let f1 := fst (open_trunc (wfs q) (gz_name n) 2%N (wnow q)) in
  let ino := snd (open_trunc (wfs q) (gz_name n) 2%N (wnow q)) in
  let data := content (wfs q) src in
  compress_file (fw q fl) n =
  (let '(t1, fl1) := pop fl in if t1 then (false, fw q fl1) else
   let '(t2, fl2) := pop fl1 in if t2 then (false, fw (set_fs q (set_gz f1 ino 1%N [])) fl2) else
   let '(t3, fl3) := pop fl2 in if t3 then (false, fw (set_fs q (set_gz f1 ino 1%N [])) fl3) else
   let '(t4, fl4) := pop fl3 in if t4 then (false, fw (set_fs q (set_gz f1 ino 1%N data)) fl4) else
   let '(t5, fl5) := pop fl4 in if t5 then (false, fw (set_fs q (set_gz f1 ino 1%N data)) fl5) else
   (true, fw (set_fs q (unlink (set_gz f1 ino 1%N data) n)) fl5)).
Proof.
  intros Q W Lg Ln. cbv zeta. pose proof (open_trunc_spec (wfs q) (gz_name n) 2%N (wnow q) W) as OT.
  unfold compress_file. rewrite tick_fw. destruct (pop fl) as [t1 fl1]. cbn [fst snd]. destruct t1; [reflexivity|].
  change (wfs (fw q fl1)) with (wfs q). change (wnow (fw q fl1)) with (wnow q). unfold file_of at 1. rewrite Lg.
  rewrite effect_fw by exact Q.
  destruct (open_trunc (wfs q) (gz_name n) 2%N (wnow q)) as [f1 ino]. cbn [fst snd] in *.
  destruct OT as (W1 & Lg1 & Hj1 & C1 & Hlen & Lo1 & Io1 & Jnew & _). specialize (Jnew Lg).
  assert (Q1 : quiet (set_fs q f1)) by (apply quiet_set_fs; exact Q).
  rewrite tick_fw. destruct (pop fl1) as [t2 fl2]. cbn [fst snd]. destruct t2.
  { rewrite effect_fw by exact Q1. reflexivity. }
  change (wfs (fw (set_fs q f1) fl2)) with f1.
  assert (Hne : n <> gz_name n) by (intros X; symmetry in X; exact (gz_name_neq _ X)).
  rewrite Lo1 by exact Hne. rewrite Ln.
  assert (Cs : content f1 src = content (wfs q) src).
  { unfold content. rewrite Io1; [reflexivity | apply (wf_bound _ W _ _ Ln) | pose proof (wf_bound _ W _ _ Ln); lia]. }
  rewrite Cs. rewrite tick_fw. destruct (pop fl2) as [t3 fl3]. cbn [fst snd]. destruct t3.
  { rewrite effect_fw by exact Q1. reflexivity. }
  rewrite effect_fw by exact Q1. cbn [set_fs wfs]. rewrite set_fs_set_fs.
  rewrite tick_fw. destruct (pop fl3) as [t4 fl4]. cbn [fst snd]. destruct t4.
  { rewrite effect_fw by exact Q1. reflexivity. }
  rewrite effect_fw by exact Q1. cbn [set_fs wfs]. rewrite set_fs_set_fs.
  rewrite p_remove_fw by (apply quiet_set_fs; exact Q). destruct (pop fl4) as [t5 fl5]. cbn [fst snd]. destruct t5; [reflexivity|].
  cbn [set_fs wfs]. assert (L5 : lookup (set_gz f1 ino 1%N (content (wfs q) src)) n = Some src) by (unfold lookup; cbn [set_gz names]; fold (lookup f1 n); rewrite Lo1 by exact Hne; exact Ln).
  rewrite L5, set_fs_set_fs. reflexivity.
Qed.

Section G.
Variables (c : config) (m : N) (k : cleanup) (ll cl : nat).
Hypothesis Hcfg : numkcfg c (CSize m) k.
Hypothesis Hk : klim k = Some (ll, cl).
Hypothesis Hcap : c_cap c = None.
Hypothesis Hsfx : sfx_ok (c_spec c).

Let Hts : fts (c_spec c) = false := proj1 (proj2 Hcfg).
Let Hasync : c_async c = false := proj1 (proj2 (proj2 (proj2 Hcfg))).
Let total := ll + cl.

Definition keeps (f f' : fs) : Prop := forall j, j < length (inodes f) -> j < length (inodes f') /\ inode f' j = inode f j.
Lemma keeps_refl f : keeps f f.
Proof. intros j H. split; [exact H | reflexivity]. Qed.
Lemma keeps_trans f1 f2 f3 : keeps f1 f2 -> keeps f2 f3 -> keeps f1 f3.
Proof. intros A B j H. destruct (A j H) as [H2 E2]. destruct (B j H2) as [H3 E3]. split; [exact H3 | congruence]. Qed.
Lemma keeps_unlink f a : keeps f (unlink f a).
Proof. intros j H. split; [exact H | reflexivity]. Qed.

Lemma compress_xdir q fl (pl ar : cdir) o i (d : bytes) : quiet q -> xdir c (wfs q) pl ar o -> In (i, d) pl -> memi i ar = false ->
  exists q', compress_file (fw q fl) (rname c i)
             = (snd (fst (g_compress i d pl ar fl)), fw q' (snd (g_compress i d pl ar fl)))
    /\ same_env q q' /\ keeps (wfs q) (wfs q')
    /\ xdir c (wfs q') (fst (fst (fst (g_compress i d pl ar fl)))) (snd (fst (fst (g_compress i d pl ar fl)))) o.
Proof.
  intros Q G Hi M. pose proof (xd_wf _ _ _ _ _ G) as W.
  destruct (xd_plain _ _ _ _ _ G i d Hi) as (src & Ls & Ps & Cs).
  pose proof (xdir_fresh_arch c (wfs q) pl ar o i G M) as Lg.
  pose proof (compress_file_fw q fl (rname c i) src Q W Lg Ls) as E. cbv zeta in E. fold (gname c i) in E. rewrite Cs in E. rewrite E. clear E.
  destruct (xdir_add_arch c (wfs q) pl ar o i [] (wnow q) G M) as (G0 & K0 & L0).
  destruct (xdir_add_arch c (wfs q) pl ar o i d (wnow q) G M) as (Gd & Kd & Ld). cbv zeta in *.
  set (f1 := fst (open_trunc (wfs q) (gname c i) 2%N (wnow q))) in *.
  set (ino := snd (open_trunc (wfs q) (gname c i) 2%N (wnow q))) in *.
  assert (Len : forall g, length (inodes (wfs q)) <= length (inodes (set_gz f1 ino 1%N g))).
  { intros g. cbn [set_gz inodes]. rewrite upd_length. unfold f1.
    pose proof (open_trunc_spec (wfs q) (gname c i) 2%N (wnow q) W) as OT. destruct (open_trunc (wfs q) (gname c i) 2%N (wnow q)). cbn [fst]. apply OT. }
  assert (K0' : keeps (wfs q) (set_gz f1 ino 1%N [])) by (intros j Hj; split; [specialize (Len []); lia | apply K0; exact Hj]).
  assert (Kd' : keeps (wfs q) (set_gz f1 ino 1%N d)) by (intros j Hj; split; [specialize (Len d); lia | apply Kd; exact Hj]).
  unfold g_compress.
  destruct (pop fl) as [t1 fl1]. destruct t1.
  { exists q. cbn [fst snd]. split; [reflexivity|]. split; [apply same_env_refl; exact Q|]. split; [apply keeps_refl | exact G]. }
  destruct (pop fl1) as [t2 fl2]. destruct t2.
  { eexists. cbn [fst snd]. split; [reflexivity|]. split; [apply same_env_set_fs; exact Q|]. split; assumption. }
  destruct (pop fl2) as [t3 fl3]. destruct t3.
  { eexists. cbn [fst snd]. split; [reflexivity|]. split; [apply same_env_set_fs; exact Q|]. split; assumption. }
  destruct (pop fl3) as [t4 fl4]. destruct t4.
  { eexists. cbn [fst snd]. split; [reflexivity|]. split; [apply same_env_set_fs; exact Q|]. split; assumption. }
  destruct (pop fl4) as [t5 fl5]. destruct t5.
  { eexists. cbn [fst snd]. split; [reflexivity|]. split; [apply same_env_set_fs; exact Q|]. split; assumption. }
  eexists. cbn [fst snd]. split; [reflexivity|]. split; [apply same_env_set_fs; exact Q|]. cbn [set_fs wfs].
  split; [eapply keeps_trans; [exact Kd' | apply keeps_unlink]|]. apply xdir_unlink_plain. exact Gd.
Qed.

(* ---- the loop of the cleanup ---- *)
Definition ekey (e : lentry) : bool * nat := (fst e, fst (snd e)).
Definition ok_entries (files : list lentry) (pl ar : cdir) : Prop :=
  (forall i d, In (false, (i, d)) files -> In (i, d) pl) /\ (forall i g, In (true, (i, g)) files -> In (i, g) ar)
  /\ NoDup (List.map ekey files) /\ (forall i d, In (false, (i, d)) files -> memi i ar = false).

Lemma ok_entries_tail e r pl ar pl' ar' : ok_entries (e :: r) pl ar ->
  (forall i d, In (i, d) pl -> (false, i) <> ekey e -> In (i, d) pl') ->
  (forall i g, In (i, g) ar -> (true, i) <> ekey e -> In (i, g) ar') ->
  (forall i, (false, i) <> ekey e -> memi i ar = false -> memi i ar' = false) ->
  ok_entries r pl' ar'.
Proof.
  intros (H1 & H2 & H3 & H4) Hp Ha Hm. inversion H3 as [|? ? Hn Hr]; subst.
  assert (Key : forall e', In e' r -> ekey e' <> ekey e) by (intros e' He' X; apply Hn; rewrite <- X; apply in_map; exact He').
  split; [|split; [|split]].
  - intros i d Hi. apply Hp; [apply H1; right; exact Hi|]. intros X. exact (Key _ Hi X).
  - intros i g Hi. apply Ha; [apply H2; right; exact Hi|]. intros X. exact (Key _ Hi X).
  - exact Hr.
  - intros i d Hi. apply Hm; [intros X; exact (Key _ Hi X) | apply (H4 i d); right; exact Hi].
Qed.

Lemma cleanup_loop_gz : forall files q fl idx (pl ar : cdir) o, quiet q -> xdir c (wfs q) pl ar o -> ok_entries files pl ar ->
  exists q', cleanup_loop (fw q fl) (List.map (ename c) files) idx ll total None
             = (snd (fst (g_loop files idx ll total pl ar fl)), fw q' (snd (g_loop files idx ll total pl ar fl)))
    /\ same_env q q' /\ keeps (wfs q) (wfs q')
    /\ xdir c (wfs q') (fst (fst (fst (g_loop files idx ll total pl ar fl)))) (snd (fst (fst (g_loop files idx ll total pl ar fl)))) o.
Proof.
  induction files as [|[g [i d]] r IH]; intros q fl idx pl ar o Q G OK.
  - exists q. cbn [List.map cleanup_loop g_loop fst snd]. split; [reflexivity|]. split; [apply same_env_refl; exact Q|]. split; [apply keeps_refl | exact G].
  - cbn [List.map]. rewrite cleanup_loop_cons. unfold CleanupFacts.act. cbn [g_loop].
    assert (Eext : ext_is (ename c (g, (i, d))) gz_sfx = g).
    { unfold ename. cbn [fst snd]. destruct g; [apply gname_is_gz | apply rname_not_gz; exact Hsfx]. }
    rewrite Eext. destruct (Nat.leb total idx).
    + (* removed *)
      rewrite p_remove_fw by exact Q. destruct (pop fl) as [t fl1]. cbn [fst snd]. destruct t.
      { exists q. cbn [fst snd]. split; [reflexivity|]. split; [apply same_env_refl; exact Q|]. split; [apply keeps_refl | exact G]. }
      destruct OK as (H1 & H2 & H3 & H4). destruct g; unfold ename; cbn [fst snd].
      * destruct (xd_arch _ _ _ _ _ G i d (H2 i d (or_introl eq_refl))) as (j & Lj & _). rewrite Lj.
        pose proof (xdir_unlink_arch c (wfs q) pl ar o i G) as G1.
        destruct (IH (set_fs q (unlink (wfs q) (gname c i))) fl1 (S idx) pl (deli i ar) o (quiet_set_fs q _ Q) G1) as (q' & E & S & K & G').
        { apply (ok_entries_tail (true, (i, d)) r pl ar); [repeat split; assumption | intros; assumption | |].
          - intros i' g' Hi Hne. apply deli_in. split; [exact Hi|]. cbn [fst]. intros ->. apply Hne. reflexivity.
          - intros i' _ Hm. apply memi_false. intros d' Hd'. apply deli_in in Hd'. apply memi_false with (d := d') in Hm. exact (Hm (proj1 Hd')). }
        exists q'. split; [exact E|]. split; [eapply same_env_trans; [apply same_env_set_fs; exact Q | exact S]|]. split; [|exact G'].
        eapply keeps_trans; [apply (keeps_unlink (wfs q) (gname c i)) | exact K].
      * destruct (xd_plain _ _ _ _ _ G i d (H1 i d (or_introl eq_refl))) as (j & Lj & _). rewrite Lj.
        pose proof (xdir_unlink_plain c (wfs q) pl ar o i G) as G1.
        destruct (IH (set_fs q (unlink (wfs q) (rname c i))) fl1 (S idx) (deli i pl) ar o (quiet_set_fs q _ Q) G1) as (q' & E & S & K & G').
        { apply (ok_entries_tail (false, (i, d)) r pl ar); [repeat split; assumption | | intros; assumption | intros; assumption].
          intros i' d' Hi Hne. apply deli_in. split; [exact Hi|]. cbn [fst]. intros ->. apply Hne. reflexivity. }
        exists q'. split; [exact E|]. split; [eapply same_env_trans; [apply same_env_set_fs; exact Q | exact S]|]. split; [|exact G'].
        eapply keeps_trans; [apply (keeps_unlink (wfs q) (rname c i)) | exact K].
    + destruct (Nat.leb ll idx).
      * destruct g.
        -- (* an archive in the compression zone: kept *)
           apply (IH q fl (S idx) pl ar o Q G). apply (ok_entries_tail (true, (i, d)) r pl ar); [exact OK | | |]; intros; assumption.
        -- (* a plain file in the compression zone: compressed *)
           destruct OK as (H1 & H2 & H3 & H4). unfold ename at 1. cbn [fst snd].
           destruct (compress_xdir q fl pl ar o i d Q G (H1 i d (or_introl eq_refl)) (H4 i d (or_introl eq_refl))) as (q1 & E1 & S1 & K1 & G1).
           rewrite E1. pose proof (fun p => proj1 (deli_in i pl p)) as DP. pose proof (fun q0 p => proj1 (insi_in q0 ar p)) as IA.
           assert (Shape : (snd (fst (g_compress i d pl ar fl)) = true ->
                            fst (fst (fst (g_compress i d pl ar fl))) = deli i pl /\ snd (fst (fst (g_compress i d pl ar fl))) = insi (i, d) ar)).
           { unfold g_compress. destruct (pop fl) as [t1 fl1]. destruct t1; [discriminate|]. destruct (pop fl1) as [t2 fl2]. destruct t2; [discriminate|].
             destruct (pop fl2) as [t3 fl3]. destruct t3; [discriminate|]. destruct (pop fl3) as [t4 fl4]. destruct t4; [discriminate|].
             destruct (pop fl4) as [t5 fl5]. destruct t5; [discriminate|]. intros _. split; reflexivity. }
           destruct (g_compress i d pl ar fl) as [[[pl1 ar1] ok1] fl1]. cbn [fst snd] in *. destruct ok1.
           ++ destruct (Shape eq_refl) as [-> ->].
              destruct (IH q1 fl1 (S idx) (deli i pl) (insi (i, d) ar) o (proj1 S1) G1) as (q' & E & S & K & G').
              { apply (ok_entries_tail (false, (i, d)) r pl ar); [repeat split; assumption | | |].
                - intros i' d' Hi Hne. apply deli_in. split; [exact Hi|]. cbn [fst]. intros ->. apply Hne. reflexivity.
                - intros i' g' Hi _. apply insi_in. right. exact Hi.
                - intros i' Hne Hm. apply memi_false. intros d' Hd'. apply insi_in in Hd'. destruct Hd' as [X|Hd'].
                  + injection X as -> _. apply Hne. reflexivity.
                  + apply memi_false with (d := d') in Hm. exact (Hm Hd'). }
              exists q'. split; [exact E|]. split; [eapply same_env_trans; eassumption|]. split; [eapply keeps_trans; eassumption | exact G'].
           ++ exists q1. cbn [fst snd]. split; [reflexivity|]. split; [exact S1|]. split; assumption.
      * (* among the newest ll: kept *)
        apply (IH q fl (S idx) pl ar o Q G). apply (ok_entries_tail (g, (i, d)) r pl ar); [exact OK | | |]; intros; assumption.
Qed.

Lemma strip_step (pl ar : cdir) i :
  filter (fun m0 => negb (beq m0 (gname c i))) (List.map (ename c) (g_listing pl ar)) = List.map (ename c) (g_listing pl (deli i ar)).
Proof.
  unfold g_listing. rewrite !map_app, !map_map, filter_app. f_equal.
  - apply filter_all_true. intros x Hx. apply in_map_iff in Hx. destruct Hx as [p [<- _]]. unfold ename. cbn [fst snd].
    destruct (beq_spec (rname c (fst p)) (gname c i)) as [X|_]; [exfalso; exact (rname_ne_gname c _ _ X) | reflexivity].
  - unfold deli. rewrite <- filter_rev'. unfold ename. cbn [fst snd]. induction (rev ar) as [|[j g] r IH]; [reflexivity|].
    cbn [List.map filter fst]. destruct (beq_spec (gname c j) (gname c i)) as [X|N1].
    + apply gname_inj in X. subst j. rewrite Nat.eqb_refl. cbn [negb]. exact IH.
    + destruct (Nat.eqb_spec j i) as [->|_]; [contradiction|]. cbn [negb List.map fst]. rewrite IH. reflexivity.
Qed.

Lemma g_red_spec : forall red (ar : cdir) fl,
  (forall p, In p (fst (fst (g_red red ar fl))) -> In p ar)
  /\ (snd (fst (g_red red ar fl)) = true -> forall p, In p (fst (fst (g_red red ar fl))) -> ~ In (fst p) (List.map fst red)).
Proof.
  induction red as [|a r IH]; intros ar fl; cbn [g_red].
  - cbn [fst snd List.map]. split; [intros p H; exact H | intros _ p _ []].
  - destruct (pop fl) as [t fl1]. destruct t; cbn [fst snd]; [split; [intros p H; exact H | discriminate]|].
    destruct (IH (deli (fst a) ar) fl1) as [I1 I2]. split.
    + intros p Hp. apply I1 in Hp. apply deli_in in Hp. exact (proj1 Hp).
    + intros Hok p Hp [E|Hin]; [|exact (I2 Hok p Hp Hin)]. apply I1 in Hp. apply deli_in in Hp. destruct Hp as [_ Hne]. congruence.
Qed.

Lemma remove_redundant_fw : forall red q fl (pl ar : cdir) o, quiet q -> xdir c (wfs q) pl ar o ->
  (forall a, In a red -> In a ar) -> NoDup (List.map fst red) ->
  exists q' files',
    remove_redundant (fw q fl) (List.map (fun a => gname c (fst a)) red) (List.map (ename c) (g_listing pl ar))
    = (snd (fst (g_red red ar fl)), fw q' (snd (g_red red ar fl)), files')
    /\ (snd (fst (g_red red ar fl)) = true -> files' = List.map (ename c) (g_listing pl (fst (fst (g_red red ar fl)))))
    /\ same_env q q' /\ keeps (wfs q) (wfs q') /\ xdir c (wfs q') pl (fst (fst (g_red red ar fl))) o.
Proof.
  induction red as [|[i g] r IH]; intros q fl pl ar o Q G Hin ND; cbn [List.map remove_redundant g_red fst].
  - exists q, (List.map (ename c) (g_listing pl ar)). cbn [fst snd]. split; [reflexivity|]. split; [reflexivity|].
    split; [apply same_env_refl; exact Q|]. split; [apply keeps_refl | exact G].
  - rewrite p_remove_fw by exact Q. destruct (pop fl) as [t fl1]. cbn [fst snd]. destruct t.
    { exists q, (List.map (ename c) (g_listing pl ar)). cbn [fst snd]. split; [reflexivity|]. split; [discriminate|].
      split; [apply same_env_refl; exact Q|]. split; [apply keeps_refl | exact G]. }
    destruct (xd_arch _ _ _ _ _ G i g (Hin _ (or_introl eq_refl))) as (j & Lj & _). rewrite Lj, strip_step.
    inversion ND as [|? ? Hn Hr]; subst.
    destruct (IH (set_fs q (unlink (wfs q) (gname c i))) fl1 pl (deli i ar) o (quiet_set_fs q _ Q) (xdir_unlink_arch c (wfs q) pl ar o i G))
      as (q' & files' & E & Ef & S & K & G'); [|exact Hr|].
    { intros a Ha. apply deli_in. split; [apply Hin; right; exact Ha|]. intros X. apply Hn. rewrite <- X. apply in_map. exact Ha. }
    exists q', files'. split; [exact E|]. split; [exact Ef|]. split; [eapply same_env_trans; [apply same_env_set_fs; exact Q | exact S]|].
    split; [eapply keeps_trans; [apply (keeps_unlink (wfs q) (gname c i)) | exact K] | exact G'].
Qed.

(* ---- one cleanup ---- *)
Lemma cleanup_impl_klim k' w : klim k' = Some (ll, cl) ->
  cleanup_impl c w k' IFNum None =
  (let '(t, w1) := tick w in
   if t then (Err, w1) else
   match list_log_gz (woff w1) (c_spec c) (fixed_of c w1) (wfs w1) IFNum with
   | None => (Panic, w1)
   | Some files =>
     let '(ok0, w1', files') := remove_redundant w1 (redundant_gz files) files in
     if negb ok0 then (Err, w1') else
     let '(ok, w2) := cleanup_loop w1' files' 0 ll (ll + cl) None in ((if ok then Ok tt else Err), w2)
   end).
Proof. intros H. destruct k'; cbn [klim] in H; try discriminate; injection H as <- <-; reflexivity. Qed.

Lemma g_listing_entries (pl ar : cdir) : asc pl -> asc ar -> (forall i, memi i pl = true -> memi i ar = false) ->
  ok_entries (g_listing pl ar) pl ar.
Proof.
  intros Ap Aa Hd. unfold g_listing. split; [|split; [|split]].
  - intros i d Hi. apply in_app_or in Hi. destruct Hi as [Hi|Hi]; apply in_map_iff in Hi; destruct Hi as [p [E Hp]]; [|discriminate].
    injection E as ->. apply in_rev in Hp. exact Hp.
  - intros i g Hi. apply in_app_or in Hi. destruct Hi as [Hi|Hi]; apply in_map_iff in Hi; destruct Hi as [p [E Hp]]; [discriminate|].
    injection E as ->. apply in_rev in Hp. exact Hp.
  - rewrite map_app, !map_map. unfold ekey. cbn [fst snd]. apply nodup_app_disjoint.
    + change (fun x : nat * bytes => (false, fst x)) with (fun x : nat * bytes => pair false (fst x)).
      rewrite <- (map_map fst (pair false)). apply FinFun.Injective_map_NoDup; [intros a b E; injection E; auto|].
      rewrite map_rev. apply NoDup_rev. apply asc_nodup. exact Ap.
    + rewrite <- (map_map fst (pair true)). apply FinFun.Injective_map_NoDup; [intros a b E; injection E; auto|].
      rewrite map_rev. apply NoDup_rev. apply asc_nodup. exact Aa.
    + intros x Hx Hy. apply in_map_iff in Hx. apply in_map_iff in Hy. destruct Hx as [p [<- _]]. destruct Hy as [p' [E _]]. discriminate.
  - intros i d Hi. apply in_app_or in Hi. destruct Hi as [Hi|Hi]; apply in_map_iff in Hi; destruct Hi as [p [E Hp]]; [|discriminate].
    injection E as ->. apply in_rev in Hp. apply Hd. apply memi_true. eauto.
Qed.

Lemma g_redundant_facts (pl ar : cdir) : asc ar ->
  (forall a, In a (g_redundant pl ar) -> In a ar) /\ NoDup (List.map fst (g_redundant pl ar)).
Proof.
  intros Aa. unfold g_redundant. split.
  - intros a Ha. apply filter_In in Ha. apply in_rev. exact (proj1 Ha).
  - assert (N : NoDup (List.map fst (rev ar))) by (rewrite map_rev; apply NoDup_rev, asc_nodup; exact Aa).
    induction (rev ar) as [|x r IH]; cbn [filter List.map]; [constructor|]. cbn [List.map] in N. inversion N as [|? ? Hn Hr]; subst.
    destruct (memi (fst x) pl); [|apply IH; exact Hr]. cbn [List.map]. constructor; [|apply IH; exact Hr].
    intros Hin. apply Hn. apply in_map_iff in Hin. destruct Hin as [p [E Hp]]. apply filter_In in Hp. rewrite <- E. apply in_map. exact (proj1 Hp).
Qed.

Lemma cleanup_impl_gz q fl (pl ar : cdir) o : quiet q -> xdir c (wfs q) pl ar o ->
  exists q', cleanup_impl c (fw q fl) k IFNum None
             = ((if snd (fst (g_cleanup ll total pl ar fl)) then Ok tt else Err), fw q' (snd (g_cleanup ll total pl ar fl)))
    /\ same_env q q' /\ keeps (wfs q) (wfs q')
    /\ xdir c (wfs q') (fst (fst (fst (g_cleanup ll total pl ar fl)))) (snd (fst (fst (g_cleanup ll total pl ar fl)))) o.
Proof.
  intros Q G. rewrite (cleanup_impl_klim k (fw q fl) Hk). unfold g_cleanup. rewrite tick_fw.
  destruct (pop fl) as [t0 fl0]. cbn [fst snd]. destruct t0.
  { exists q. cbn [fst snd]. split; [reflexivity|]. split; [apply same_env_refl; exact Q|]. split; [apply keeps_refl | exact G]. }
  rewrite (fixed_of_fixed0 c (fw q fl0) Hts). change (woff (fw q fl0)) with (woff q). change (wfs (fw q fl0)) with (wfs q).
  rewrite (list_log_gz_xdir c Hsfx (wfs q) (woff q) pl ar o G), (redundant_xdir c Hsfx pl ar).
  destruct (g_redundant_facts pl ar (xd_asca _ _ _ _ _ G)) as [Rin Rnd].
  destruct (remove_redundant_fw (g_redundant pl ar) q fl0 pl ar o Q G Rin Rnd) as (q1 & files' & E1 & Ef & S1 & K1 & G1).
  rewrite E1. clear E1. pose proof (g_red_spec (g_redundant pl ar) ar fl0) as [RS1 RS2].
  destruct (g_red (g_redundant pl ar) ar fl0) as [[ar1 ok0] fl1]. cbn [fst snd] in *. destruct ok0; cbn [negb].
  - rewrite (Ef eq_refl).
    assert (OK : ok_entries (g_listing pl ar1) pl ar1).
    { apply g_listing_entries; [exact (xd_ascp _ _ _ _ _ G1) | exact (xd_asca _ _ _ _ _ G1)|].
      intros i Hi. apply memi_false. intros g Hg. apply (RS2 eq_refl (i, g) Hg). cbn [fst].
      apply in_map_iff. exists (i, g). split; [reflexivity|]. unfold g_redundant. apply filter_In. split; [apply -> in_rev; exact (RS1 _ Hg) | exact Hi]. }
    destruct (cleanup_loop_gz (g_listing pl ar1) q1 fl1 0 pl ar1 o (proj1 S1) G1 OK) as (q2 & E2 & S2 & K2 & G2).
    fold total. rewrite E2. destruct (g_loop (g_listing pl ar1) 0 ll total pl ar1 fl1) as [[[pl2 ar2] ok] fl2]. cbn [fst snd] in *.
    exists q2. split; [destruct ok; reflexivity|]. split; [eapply same_env_trans; eassumption|]. split; [eapply keeps_trans; eassumption | exact G2].
  - exists q1. cbn [fst snd]. split; [reflexivity|]. split; [exact S1|]. split; assumption.
Qed.
Definition actg (idx cur : N) (wr : writer) : inner := Active (Some (mk_rsk k (NSNumR idx) (RSize m cur))) wr (cname c).

(* a rotation: the new index (rename), the new file (open), the cleanup *)
Lemma mount_next_rotating w idx cur wr : wpend wr = [] -> (m <? cur)%N = true ->
  mount_next c w (actg idx cur wr) false =
  match index_for_rcurrent c w (Some idx) true with
  | (Ok idx', w') =>
    match open_log_file c w' (Some cur_infix) with
    | (Ok (wr', path'), w2) =>
      let '(rc, w4) := cleanup_impl c w2 k IFNum None in
      (match rc with Ok _ => Ok tt | Err => Err | Panic => Panic end, w4,
       Active (Some (mk_rsk k (NSNumR idx') (RSize m 0))) wr' path')
    | (Err, w2) => (Err, w2, actg idx' cur wr)
    | (Panic, w2) => (Panic, w2, actg idx' cur wr)
    end
  | (Err, w') => (Err, w', actg idx cur wr)
  | (Panic, w') => (Panic, w', actg idx cur wr)
  end.
Proof.
  intros Hp Hm. unfold mount_next, actg. cbn [mk_rsk rs_roll rs_naming rs_cleanup rs_bg orb rotation_necessary].
  unfold size_rotation_necessary. rewrite Hm.
  destruct (index_for_rcurrent c w (Some idx) true) as [[idx'| |] w']; try reflexivity.
  destruct (open_log_file c w' (Some cur_infix)) as [[[wr' path']| |] w2]; try reflexivity.
  rewrite w_flush_nop by exact Hp. cbv beta iota zeta. rewrite w_drop_nop by reflexivity.
  unfold cleanup_or_queue. cbn [reset_size_and_date ns_filter ns_writes_direct].
  destruct (cleanup_impl c w2 k IFNum None) as [rc w4]. reflexivity.
Qed.

Lemma mount_next_not_due w idx cur wr : (m <? cur)%N = false -> mount_next c w (actg idx cur wr) false = (Ok tt, w, actg idx cur wr).
Proof.
  intros Hm. unfold mount_next, actg. cbn [mk_rsk rs_roll orb rotation_necessary]. unfold size_rotation_necessary. rewrite Hm. reflexivity.
Qed.

Lemma open_cur_fresh q fl : quiet q -> lookup (wfs q) (cname c) = None ->
  open_log_file c (fw q fl) (Some cur_infix) =
  if fst (pop fl) then (Err, fw q (snd (pop fl)))
  else (Ok ({| wino := snd (create_file (wfs q) (cname c) 0%N (wnow q)); wpend := []; wcap := c_cap c |}, cname c),
        fw (set_fs q (fst (create_file (wfs q) (cname c) 0%N (wnow q)))) (snd (pop fl))).
Proof.
  intros Q L. exact (open_log_file_fresh_fw c q fl (Some cur_infix) Q Hts (proj1 (proj2 (proj2 Hcfg))) L).
Qed.

Lemma open_cur_existing q fl j : quiet q -> c_append c = true -> lookup (wfs q) (cname c) = Some j -> fdir (inode (wfs q) j) = false ->
  open_log_file c (fw q fl) (Some cur_infix) =
  if fst (pop fl) then (Err, fw q (snd (pop fl)))
  else (Ok ({| wino := j; wpend := []; wcap := c_cap c |}, cname c), fw q (snd (pop fl))).
Proof.
  intros Q Ha L D. pose proof Hcfg as (_ & _ & Hlink & _). unfold open_log_file. rewrite (name_of_fixed c (fw q fl)) by exact Hts.
  fold (nm c cur_infix) (cname c). unfold do_symlink. rewrite Hlink. rewrite p_open_fw by exact Q.
  destruct (pop fl) as [f2 fl2]; cbn [fst snd]. destruct f2; [reflexivity|].
  unfold file_of at 1. rewrite L, D, Ha. unfold open_append. rewrite L. cbn [fst snd]. rewrite set_fs_id. reflexivity.
Qed.

(* ---- the writer and its file: on rCURRENT (old = false), or on the closed file r<idx> (old = true) ---- *)
Definition kidx_of (old : bool) (idx : nat) : N := if old then (N.of_nat idx + 1)%N else N.of_nat idx.
Definition GA (old : bool) (q : world) (wr : writer) (pl ar : cdir) (idx : nat) (d : bytes) : Prop :=
  wpend wr = [] /\ wcap wr = None /\ (forall i e, In (i, e) pl -> i < idx) /\
  if old then xdir c (wfs q) (pl ++ [(idx, d)]) ar None /\ lookup (wfs q) (rname c idx) = Some (wino wr)
  else xdir c (wfs q) pl ar (Some (wino wr)) /\ content (wfs q) (wino wr) = d.
Definition gst_same (old : bool) (pl ar : cdir) (idx : nat) (d : bytes) : gst := if old then GOld pl ar idx d else GCur pl ar idx d.

Lemma ga_env old q q' wr pl ar idx d : GA old q wr pl ar idx d -> wfs q' = wfs q -> GA old q' wr pl ar idx d.
Proof. unfold GA. intros H F. rewrite F. exact H. Qed.

Lemma ga_append old q q' wr pl ar idx d b : GA old q wr pl ar idx d -> wfs q' = append_ino (wfs q) (wino wr) b -> GA old q' wr pl ar idx (d ++ b).
Proof.
  intros (Hp & Hc & Hb & H) F. split; [exact Hp|]. split; [exact Hc|]. split; [exact Hb|]. rewrite F. destruct old.
  - destruct H as [G L]. split; [apply xdir_append_old; assumption | rewrite lookup_append; exact L].
  - destruct H as [G C]. destruct (xdir_append_cur c (wfs q) pl ar (wino wr) b G) as [G' C']. split; [exact G' | rewrite C', C; reflexivity].
Qed.

(* what the rename of rCURRENT at a rotation does *)
Lemma ga_rename old q wr pl ar idx d fl1 : quiet q -> GA old q wr pl ar idx d ->
  exists q1,
    match rename (wfs q) (cname c) (nm c (number_infix (kidx_of old idx))) with
    | Some f1 => (@Ok N (kidx_of old idx + 1)%N, fw (set_fs q f1) fl1)
    | None => (Ok (kidx_of old idx), fw q fl1)
    end = (Ok (kidx_of true idx), fw q1 fl1)
    /\ quiet q1 /\ wacts q1 = wacts q /\ werrs q1 = werrs q /\ GA true q1 wr pl ar idx d.
Proof.
  intros Q (Hp & Hc & Hb & H). destruct old; cbn [kidx_of].
  - destruct H as [G L]. pose proof (xd_cur _ _ _ _ _ G) as Lc. cbn beta iota in Lc. rewrite (rename_none _ _ _ Lc).
    exists q. split; [reflexivity|]. split; [exact Q|]. split; [reflexivity|]. split; [reflexivity|].
    split; [exact Hp|]. split; [exact Hc|]. split; [exact Hb|]. split; assumption.
  - destruct H as [G C]. destruct (xdir_rename c (wfs q) pl ar (wino wr) idx G Hb) as (f1 & Er & Ei & G1 & L1).
    fold (rname c idx). rewrite Er. exists (set_fs q f1). split; [reflexivity|]. split; [apply quiet_set_fs; exact Q|].
    split; [reflexivity|]. split; [reflexivity|]. split; [exact Hp|]. split; [exact Hc|]. split; [exact Hb|].
    cbn [set_fs wfs]. rewrite C in G1. split; assumption.
Qed.

(* ------------------------------------------------------------------ the invariant of the run *)
Definition DG (q : world) (pl ar : cdir) (created : bool) : Prop :=
  exists o, xdir c (wfs q) pl ar o /\ (if created then exists j, o = Some j /\ content (wfs q) j = [] else o = None).

Definition FInvG (B : nat) (x : sys) (st : gst) (errs : list ecode) (fl : list bool) : Prop :=
  exists q, s_w x = fw q fl /\ quiet q /\ wacts q = 0 /\ werrs q = errs /\ s_tl x = [] /\
  match st with
  | GInit pl ar created =>
    s_flw x = Some (mkflw c Initial) /\ DG q pl ar created /\ (N.of_nat (g_next pl ar + B) <= u32_max)%N
  | GCur pl ar idx d => exists wr, s_flw x = Some (mkflw c (actg (kidx_of false idx) (N.of_nat (length d)) wr)) /\ GA false q wr pl ar idx d
  | GOld pl ar idx d => exists wr, s_flw x = Some (mkflw c (actg (kidx_of true idx) (N.of_nat (length d)) wr)) /\ GA true q wr pl ar idx d
  end.

Lemma finvg_same B x old (pl ar : cdir) (idx : nat) (d : bytes) errs fl q wr :
  s_w x = fw q fl -> quiet q -> wacts q = 0 -> werrs q = errs -> s_tl x = [] ->
  s_flw x = Some (mkflw c (actg (kidx_of old idx) (N.of_nat (length d)) wr)) -> GA old q wr pl ar idx d ->
  FInvG B x (gst_same old pl ar idx d) errs fl.
Proof. intros. exists q. destruct old; cbn [gst_same]; repeat (split; [assumption|]); exists wr; split; assumption. Qed.

(* the rotation check has been made (result r1, world q1, oracle fl1, writer wr1 on a file that holds d1): the write *)
Lemma tail_stepg B x q fl idx cur wr r1 q1 fl1 old1 (pl1 ar1 : cdir) (idx1 : nat) (d1 : bytes) wr1 errs1 (b : bytes) :
  s_w x = fw q fl -> s_tl x = [] -> s_flw x = Some (mkflw c (actg idx cur wr)) ->
  mount_next c (fw q fl) (actg idx cur wr) false = (r1, fw q1 fl1, actg (kidx_of old1 idx1) (N.of_nat (length d1)) wr1) ->
  r1 <> Panic -> quiet q1 -> wacts q1 = 0 -> werrs q1 = errs1 -> GA old1 q1 wr1 pl1 ar1 idx1 d1 ->
  let '(d', e, fl2) := s_write d1 b fl1 in
  exists x' rot, step x (OWrite b) = (x', ObsRes 0 rot)
    /\ FInvG B x' (gst_same old1 pl1 ar1 idx1 d') (errs1 ++ (match r1 with Err => [ELogFile] | _ => [] end) ++ e) fl2.
Proof.
  intros Ew Ht Es M Hr Q1 Ha1 He1 A1.
  pose proof A1 as (Hp1 & Hc1 & _).
  destruct (wb_active_rs c m q fl k false _ _ cur wr r1 q1 fl1 _ _ _ wr1 b M Hr Q1 Hc1) as [q3 [E [R3 F3]]].
  unfold s_write. destruct (wr_pop b fl1) as [f fl2]. cbn [fst snd] in *.
  rewrite <- Ew in E. pose proof (step_write_sync x _ b _ _ _ _ Es eq_refl Hts Hasync Ht E) as S.
  destruct f.
  - (* the write fails: reported by the handle *)
    eexists _, _. split; [apply S; discriminate|].
    destruct (report_ewrite_fw q1 q3 _ errs1 fl2 R3 Ha1 He1) as [Ew' [Q' [Ha' [He' F4]]]].
    apply (finvg_same B _ old1 pl1 ar1 idx1 d1 _ fl2 (report EWrite q3) wr1); cbn [s_w s_tl s_flw]; try assumption; try reflexivity.
    apply (ga_env old1 q1); [exact A1 | rewrite F4; exact F3].
  - eexists _, _. split; [apply S; discriminate|].
    apply (finvg_same B _ old1 pl1 ar1 idx1 (d1 ++ b) _ fl2 q3 wr1); cbn [s_w s_tl s_flw].
    + reflexivity.
    + apply R3.
    + exact (reported_acts _ _ _ R3 Ha1).
    + rewrite (reported_errs _ _ _ _ R3 He1), app_nil_r. reflexivity.
    + reflexivity.
    + rewrite app_length, Nat2N.inj_add. reflexivity.
    + apply (ga_append old1 q1); [exact A1 | exact F3].
Qed.

(* one record on an initialised writer *)
Lemma active_stepg B x old q fl errs (pl ar : cdir) (idx : nat) (d : bytes) wr (b : bytes) :
  s_w x = fw q fl -> quiet q -> wacts q = 0 -> werrs q = errs -> s_tl x = [] ->
  s_flw x = Some (mkflw c (actg (kidx_of old idx) (N.of_nat (length d)) wr)) -> GA old q wr pl ar idx d ->
  let '(st', e, fl') := g_active m ll total old pl ar idx d b fl in
  exists x' rot, step x (OWrite b) = (x', ObsRes 0 rot) /\ FInvG B x' st' (errs ++ e) fl'.
Proof.
  intros Ew Q Ha He Ht Es A. pose proof A as (Hp & Hc & Hb & _).
  unfold g_active. fold (gst_same old pl ar idx).
  destruct (m <? N.of_nat (length d))%N eqn:Em.
  - pose proof (mount_next_rotating (fw q fl) (kidx_of old idx) (N.of_nat (length d)) wr Hp Em) as M.
    rewrite index_rotate_fw in M by assumption.
    destruct (pop fl) as [f1 fl1]. cbn [fst snd] in M. destruct f1.
    + pose proof (tail_stepg B x q fl _ _ wr Err q fl1 old pl ar idx d wr errs b Ew Ht Es M (fun H => ltac:(discriminate H)) Q Ha He A) as T.
      destruct (s_write d b fl1) as [[d' e] fl2]. exact T.
    + destruct (ga_rename old q wr pl ar idx d fl1 Q A) as (q1 & Er & Q1 & Ha1 & He1 & A1). rewrite Er in M.
      assert (Lc1 : lookup (wfs q1) (cname c) = None) by (destruct A1 as (_ & _ & _ & G1 & _); exact (xd_cur _ _ _ _ _ G1)).
      rewrite (open_cur_fresh q1 fl1 Q1 Lc1) in M.
      destruct (pop fl1) as [f2 fl2]. cbn [fst snd] in M. destruct f2.
      * pose proof (tail_stepg B x q fl _ _ wr Err q1 fl2 true pl ar idx d wr errs b Ew Ht Es M (fun H => ltac:(discriminate H)) Q1
                      (eq_trans Ha1 Ha) (eq_trans He1 He) A1) as T.
        destruct (s_write d b fl2) as [[d' e] fl3]. exact T.
      * (* the rotation is completed: the cleanup *)
        set (q2 := set_fs q1 (fst (create_file (wfs q1) (cname c) 0%N (wnow q1)))) in *.
        set (wr2 := {| wino := snd (create_file (wfs q1) (cname c) 0%N (wnow q1)); wpend := []; wcap := c_cap c |}) in *.
        assert (Q2 : quiet q2) by (apply quiet_set_fs; exact Q1).
        destruct A1 as (_ & _ & _ & G1 & _).
        destruct (xdir_create c (wfs q1) (pl ++ [(idx, d)]) ar (wnow q1) G1) as [G2 C2].
        destruct (cleanup_impl_gz q2 fl2 (pl ++ [(idx, d)]) ar (Some (wino wr2)) Q2 G2) as (q3 & Ec & S3 & K3 & G3).
        rewrite Ec in M. pose proof (proj1 (g_cleanup_incl ll total (pl ++ [(idx, d)]) ar fl2)) as CI.
        destruct (g_cleanup ll total (pl ++ [(idx, d)]) ar fl2) as [[[pl2 ar2] ok] fl3]. cbn [fst snd] in *.
        assert (A3 : GA false q3 wr2 pl2 ar2 (S idx) []).
        { split; [reflexivity|]. split; [exact Hcap|]. split.
          - intros i e Hi. specialize (CI _ Hi). apply in_app_or in CI. destruct CI as [H|[H|[]]]; [specialize (Hb _ _ H); lia|].
            injection H as <- _. lia.
          - split; [exact G3|]. destruct (xd_cur _ _ _ _ _ G2) as [L2 _].
            destruct (K3 (wino wr2) (wf_bound _ (xd_wf _ _ _ _ _ G2) _ _ L2)) as [_ I3]. unfold content. rewrite I3. exact C2. }
        assert (Ei3 : kidx_of true idx = kidx_of false (S idx)) by (cbn [kidx_of]; lia).
        assert (M' : mount_next c (fw q fl) (actg (kidx_of old idx) (N.of_nat (length d)) wr) false
                     = ((if ok then Ok tt else Err), fw q3 fl3, actg (kidx_of false (S idx)) (N.of_nat (length (@nil N))) wr2)).
        { rewrite M, <- Ei3. destruct ok; reflexivity. }
        assert (Ha3 : wacts q3 = 0) by (rewrite (same_env_acts _ _ S3); [reflexivity | exact (eq_trans Ha1 Ha)]).
        assert (He3 : werrs q3 = errs). { destruct S3 as (_ & _ & _ & H & _). rewrite H. exact (eq_trans He1 He). }
        pose proof (tail_stepg B x q fl _ _ wr (if ok then Ok tt else Err) q3 fl3 false pl2 ar2 (S idx) [] wr2 errs b Ew Ht Es M'
                      ltac:(destruct ok; discriminate) (proj1 S3) Ha3 He3 A3) as T.
        destruct (s_write [] b fl3) as [[d' e] fl4]. destruct T as (x' & rot & St & I'). exists x', rot. split; [exact St|].
        cbn [gst_same] in I'. destruct ok; exact I'.
  - pose proof (mount_next_not_due (fw q fl) (kidx_of old idx) (N.of_nat (length d)) wr Em) as M.
    pose proof (tail_stepg B x q fl _ _ wr (Ok tt) q fl old pl ar idx d wr errs b Ew Ht Es M (fun H => ltac:(discriminate H)) Q Ha He A) as T.
    destruct (s_write d b fl) as [[d' e] fl1]. exact T.
Qed.

(* ------------------------------------------------------------------ the initialisation *)
Definition g_init_tail (ap : bool) (pl1 ar : cdir) (created1 : bool) (idx1 : nat) (fl2 : list bool)
  : (cdir * cdir * bool * option nat) * list bool :=
  let '(f3, fl3) := pop fl2 in
  if f3 then ((pl1, ar, created1, None), fl3) else
  let '(f4, fl4) := if ap then pop fl3 else (false, fl3) in
  if f4 then ((pl1, ar, true, None), fl4) else
  let '(pl2, ar2, ok, fl5) := g_cleanup ll total pl1 ar fl4 in
  ((pl2, ar2, true, if ok then Some idx1 else None), fl5).
Definition g_init_res (ap : bool) (pl ar : cdir) (created : bool) (fl : list bool) : (cdir * cdir * bool * option nat) * list bool :=
  let '(f1, fl1) := pop fl in
  if f1 then ((pl, ar, created, None), fl1) else
  let idx := g_next pl ar in
  let '(f2, fl2) := if ap then (false, fl1) else pop fl1 in
  if f2 then ((pl, ar, created, None), fl2) else
  g_init_tail ap (if ap then pl else if created then pl ++ [(idx, [])] else pl) ar
              (if ap then created else false) (if ap then idx else if created then S idx else idx) fl2.

Lemma g_init_alt ap pl ar created b fl :
  g_init ap m ll total pl ar created b fl
  = match g_init_res ap pl ar created fl with
    | ((pl', ar', cr, None), fl') => (GInit pl' ar' cr, [EWrite], fl')
    | ((pl', ar', _, Some idx1), fl') => g_active m ll total false pl' ar' idx1 [] b fl'
    end.
Proof.
  unfold g_init, g_init_res, g_init_tail. destruct (pop fl) as [f1 fl1]. destruct f1; [reflexivity|].
  destruct (if ap then (false, fl1) else pop fl1) as [f2 fl2]. destruct f2; [reflexivity|].
  destruct (pop fl2) as [f3 fl3]. destruct f3; [reflexivity|].
  destruct (if ap then pop fl3 else (false, fl3)) as [f4 fl4]. destruct f4; [reflexivity|].
  destruct (g_cleanup ll total _ ar fl4) as [[[pl2 ar2] ok] fl5]. destruct ok; reflexivity.
Qed.

Lemma g_next_cleanup (pl ar : cdir) fl : asc pl -> asc ar ->
  g_next (fst (fst (fst (g_cleanup ll total pl ar fl)))) (snd (fst (fst (g_cleanup ll total pl ar fl)))) <= g_next pl ar.
Proof.
  intros Ap Aa. destruct (g_cleanup_incl ll total pl ar fl) as [I1 I2].
  destruct (g_cleanup ll total pl ar fl) as [[[pl2 ar2] ok] fl']. cbn [fst snd] in *. unfold g_next.
  pose proof (next_idx_incl pl pl2 Ap I1) as H1.
  assert (H2 : next_idx ar2 <= Nat.max (next_idx pl) (next_idx ar)).
  { destruct (next_idx_cases ar2) as [[_ E]|(j & e & Hj & E)]; rewrite E; [lia|].
    destruct (I2 _ Hj) as [H|[d [Hd _]]]; [pose proof (asc_below_next ar Aa j e H) | cbn [fst] in Hd; pose proof (asc_below_next pl Ap j d Hd)]; lia. }
  lia.
Qed.

(* open rCURRENT, read its size (append), clean up *)
Lemma init_tail_fw B q1 fl2 (pl1 ar : cdir) (created1 : bool) (idx1 : nat) :
  quiet q1 -> DG q1 pl1 ar created1 -> (created1 = true -> c_append c = true) -> (forall i e, In (i, e) pl1 -> i < idx1) ->
  (N.of_nat (g_next pl1 ar + B) <= u32_max)%N ->
  match g_init_tail (c_append c) pl1 ar created1 idx1 fl2 with
  | ((pl', ar', cr, None), fl') =>
    exists q',
      bind (open_log_file c (fw q1 fl2) (Some cur_infix)) (fun wp w2 =>
        let '(wr, path) := wp in
        bind (roll_new w2 (CSize m) (c_append c) path) (fun roll w3 =>
        bind (cleanup_impl c w3 k IFNum None) (fun _ w4 =>
        (Ok (Active (Some {| rs_naming := NSNumR (N.of_nat idx1); rs_roll := roll; rs_cleanup := k; rs_bg := c_bg c |}) wr path),
         if c_bg c then set_acts w4 0 else w4))))
      = (Err, fw q' fl') /\ same_env q1 q' /\ DG q' pl' ar' cr /\ (N.of_nat (g_next pl' ar' + B) <= u32_max)%N
  | ((pl', ar', _, Some idx'), fl') =>
    exists q' wr,
      bind (open_log_file c (fw q1 fl2) (Some cur_infix)) (fun wp w2 =>
        let '(wr, path) := wp in
        bind (roll_new w2 (CSize m) (c_append c) path) (fun roll w3 =>
        bind (cleanup_impl c w3 k IFNum None) (fun _ w4 =>
        (Ok (Active (Some {| rs_naming := NSNumR (N.of_nat idx1); rs_roll := roll; rs_cleanup := k; rs_bg := c_bg c |}) wr path),
         if c_bg c then set_acts w4 0 else w4))))
      = (Ok (actg (N.of_nat idx') 0 wr), fw q' fl') /\ same_env q1 q' /\ GA false q' wr pl' ar' idx' []
  end.
Proof.
  intros Q1 (o & G & Ho) Hca Hb1 Hbd. pose proof Hcfg as (_ & _ & _ & _ & Hbg). unfold g_init_tail.
  assert (Op : exists q2 j,
    open_log_file c (fw q1 fl2) (Some cur_infix)
    = (if fst (pop fl2) then (Err, fw q1 (snd (pop fl2)))
       else (Ok ({| wino := j; wpend := []; wcap := c_cap c |}, cname c), fw q2 (snd (pop fl2))))
    /\ same_env q1 q2 /\ xdir c (wfs q2) pl1 ar (Some j) /\ content (wfs q2) j = []).
  { destruct created1.
    - destruct Ho as (j & -> & Cj). destruct (xd_cur _ _ _ _ _ G) as [Lc [_ Dc]]. exists q1, j.
      split; [apply (open_cur_existing q1 fl2 j Q1 (Hca eq_refl) Lc Dc)|]. split; [apply same_env_refl; exact Q1|]. split; assumption.
    - subst o. pose proof (xd_cur _ _ _ _ _ G) as Lc. cbn beta iota in Lc.
      destruct (xdir_create c (wfs q1) pl1 ar (wnow q1) G) as [G2 C2].
      exists (set_fs q1 (fst (create_file (wfs q1) (cname c) 0%N (wnow q1)))), (snd (create_file (wfs q1) (cname c) 0%N (wnow q1))).
      split; [apply (open_cur_fresh q1 fl2 Q1 Lc)|]. split; [apply same_env_set_fs; exact Q1|]. split; assumption. }
  destruct Op as (q2 & j & Eop & S2 & G2 & C2). rewrite Eop. clear Eop.
  destruct (pop fl2) as [f3 fl3]. cbn [fst snd]. destruct f3; cbn [bind].
  { exists q1. split; [reflexivity|]. split; [apply same_env_refl; exact Q1|]. split; [exists o; split; assumption | exact Hbd]. }
  pose proof (proj1 S2) as Q2. destruct (xd_cur _ _ _ _ _ G2) as [Lc2 Pc2].
  rewrite (roll_new_fw q2 fl3 m (c_append c) (cname c) (inode (wfs q2) j) (file_of_lookup _ _ _ Lc2) C2).
  destruct (if c_append c then pop fl3 else (false, fl3)) as [f4 fl4]. destruct f4; cbn [bind].
  { exists q2. split; [reflexivity|]. split; [exact S2|]. split; [|exact Hbd]. exists (Some j). split; [exact G2|]. eauto. }
  destruct (cleanup_impl_gz q2 fl4 pl1 ar (Some j) Q2 G2) as (q3 & Ec & S3 & K3 & G3). rewrite Ec. clear Ec.
  pose proof (proj1 (g_cleanup_incl ll total pl1 ar fl4)) as CI.
  pose proof (g_next_cleanup pl1 ar fl4 (xd_ascp _ _ _ _ _ G) (xd_asca _ _ _ _ _ G)) as NX.
  destruct (g_cleanup ll total pl1 ar fl4) as [[[pl2 ar2] ok] fl5]. cbn [fst snd] in *.
  assert (C3 : content (wfs q3) j = []).
  { destruct (K3 j (wf_bound _ (xd_wf _ _ _ _ _ G2) _ _ Lc2)) as [_ I3]. unfold content. rewrite I3. exact C2. }
  destruct ok; cbn [bind].
  - exists q3, {| wino := j; wpend := []; wcap := c_cap c |}. rewrite Hbg. split; [reflexivity|].
    split; [eapply same_env_trans; eassumption|]. split; [reflexivity|]. split; [exact Hcap|].
    split; [intros i e Hi; apply (Hb1 i e), CI, Hi|]. split; assumption.
  - exists q3. split; [reflexivity|]. split; [eapply same_env_trans; eassumption|]. split; [exists (Some j); split; [exact G3 | eauto]|]. lia.
Qed.

Lemma initialize_unfold k' w : klim k' = Some (ll, cl) -> c_rot c = Some (CSize m, NNumbers, k') ->
  initialize c w =
  bind (init_naming c w NNumbers) (fun ni w1 =>
    let '(ns, infix) := ni in
    bind (open_log_file c w1 (Some infix)) (fun wp w2 =>
    let '(wr, path) := wp in
    bind (roll_new w2 (CSize m) (c_append c) path) (fun roll w3 =>
    bind (cleanup_impl c w3 k' (ns_filter ns) None) (fun _ w4 =>
    (Ok (Active (Some {| rs_naming := ns; rs_roll := roll; rs_cleanup := k'; rs_bg := c_bg c |}) wr path),
     if c_bg c then set_acts w4 0 else w4))))).
Proof. intros H1 H2. unfold initialize. rewrite H2. destruct k'; [discriminate H1 | reflexivity | reflexivity | reflexivity]. Qed.

Lemma initialize_cleanup_fw B q fl pl ar created : quiet q -> DG q pl ar created -> (N.of_nat (g_next pl ar + S B) <= u32_max)%N ->
  match g_init_res (c_append c) pl ar created fl with
  | ((pl', ar', cr, None), fl') =>
    exists q', initialize c (fw q fl) = (Err, fw q' fl') /\ same_env q q' /\ DG q' pl' ar' cr /\ (N.of_nat (g_next pl' ar' + B) <= u32_max)%N
  | ((pl', ar', _, Some idx1), fl') =>
    exists q' wr, initialize c (fw q fl) = (Ok (actg (N.of_nat idx1) 0 wr), fw q' fl') /\ same_env q q' /\ GA false q' wr pl' ar' idx1 []
  end.
Proof.
  intros Q D Hbd. pose proof D as (o & G & Ho). pose proof Hcfg as (Hrot & _ & Hlink & Has & Hbg).
  assert (Hlt : forall i d, In (i, d) pl -> i < g_next pl ar).
  { intros i d Hi. pose proof (asc_below_next pl (xd_ascp _ _ _ _ _ G) i d Hi). unfold g_next. lia. }
  assert (Hlta : forall i d, In (i, d) ar -> i < g_next pl ar).
  { intros i d Hi. pose proof (asc_below_next ar (xd_asca _ _ _ _ _ G) i d Hi). unfold g_next. lia. }
  assert (Hu32 : forall i d, In (i, d) pl -> (N.of_nat i <= u32_max)%N) by (intros i d Hi; specialize (Hlt i d Hi); lia).
  assert (Hu32a : forall i d, In (i, d) ar -> (N.of_nat i <= u32_max)%N) by (intros i d Hi; specialize (Hlta i d Hi); lia).
  assert (Fail : forall fl', exists q', (Err : res inner, fw q fl') = (Err, fw q' fl') /\ same_env q q' /\ DG q' pl ar created
                                        /\ (N.of_nat (g_next pl ar + B) <= u32_max)%N).
  { intros fl'. exists q. split; [reflexivity|]. split; [apply same_env_refl; exact Q|]. split; [exact D | lia]. }
  rewrite (initialize_unfold k (fw q fl) Hk Hrot). unfold init_naming, index_for_rcurrent, with_listing. rewrite tick_fw.
  unfold g_init_res. destruct (pop fl) as [f1 fl1]. cbn [fst snd]. destruct f1; [cbn [bind]; apply Fail|].
  cbv beta. rewrite (fixed_of_fixed0 c (fw q fl1) Hts). change (woff (fw q fl1)) with (woff q). change (wfs (fw q fl1)) with (wfs q).
  rewrite (highest_index_xdir c Hsfx (wfs q) (woff q) pl ar o G Hu32 Hu32a).
  set (idx := g_next pl ar) in *.
  assert (R : exists q1, same_env q q1 /\
    (if negb (c_append c)
     then let '(r, w1) := p_rename (fw q fl1) (name_of c (fw q fl1) (Some cur_infix)) (name_of c (fw q fl1) (Some (number_infix (N.of_nat idx)))) in
          match r with ROk => (Ok (N.of_nat idx + 1)%N, w1) | RNotFound => (Ok (N.of_nat idx), w1) | RErr => (Err, w1) end
     else (Ok (N.of_nat idx), fw q fl1))
    = (let '(f2, fl2) := if c_append c then (false, fl1) else pop fl1 in
       if f2 then (Err, fw q fl2)
       else (Ok (N.of_nat (if c_append c then idx else if created then S idx else idx)), fw q1 fl2))
    /\ DG q1 (if c_append c then pl else if created then pl ++ [(idx, [])] else pl) ar (if c_append c then created else false)
    /\ ((if c_append c then created else false) = true -> c_append c = true)
    /\ (forall i e, In (i, e) (if c_append c then pl else if created then pl ++ [(idx, [])] else pl) ->
                    i < (if c_append c then idx else if created then S idx else idx))
    /\ (N.of_nat (g_next (if c_append c then pl else if created then pl ++ [(idx, [])] else pl) ar + B) <= u32_max)%N).
  { destruct (c_append c) eqn:Happ; cbn [negb].
    - exists q. split; [apply same_env_refl; exact Q|]. split; [reflexivity|]. split; [exact D|]. split; [intros _; reflexivity|].
      split; [exact Hlt | fold idx; lia].
    - rewrite !(name_of_fixed c (fw q fl1)) by exact Hts. fold (nm c cur_infix) (cname c). fold (nm c (number_infix (N.of_nat idx))).
      rewrite p_rename_fw by exact Q. destruct created.
      + destruct Ho as (j & -> & Cj). destruct (xdir_rename c (wfs q) pl ar j idx G Hlt) as (f1 & Er & Ei & G1 & L1). rewrite Cj in G1.
        unfold rname in Er. rewrite Er. exists (set_fs q f1). split; [apply same_env_set_fs; exact Q|].
        split. { destruct (pop fl1) as [f2 fl2]. cbn [fst snd]. destruct f2; [reflexivity|]. f_equal. f_equal. lia. }
        split; [exists None; split; [exact G1 | reflexivity]|]. split; [discriminate|].
        split. { intros i e Hi. apply in_app_or in Hi. destruct Hi as [Hi|[E|[]]]; [specialize (Hlt _ _ Hi); lia | injection E as <- _; lia]. }
        unfold g_next. rewrite next_idx_snoc. fold idx in Hbd. unfold idx, g_next in *. lia.
      + subst o. pose proof (xd_cur _ _ _ _ _ G) as Lc. cbn beta iota in Lc. rewrite (rename_none _ _ (nm c (number_infix (N.of_nat idx))) Lc).
        exists q. split; [apply same_env_refl; exact Q|].
        split. { destruct (pop fl1) as [f2 fl2]. cbn [fst snd]. destruct f2; reflexivity. }
        split; [exact D|]. split; [discriminate|]. split; [exact Hlt | fold idx; lia]. }
  destruct R as (q1 & S1 & ER & D1 & Hca1 & Hb1 & Hbd1). rewrite ER. clear ER.
  destruct (if c_append c then (false, fl1) else pop fl1) as [f2 fl2]. destruct f2; [cbn [bind]; apply Fail|]. cbn [bind].
  cbn [ns_filter naming_writes_direct].
  pose proof (init_tail_fw B q1 fl2 _ ar _ _ (proj1 S1) D1 Hca1 Hb1 Hbd1) as T.
  destruct (g_init_tail (c_append c) _ ar _ _ fl2) as [[[[pl' ar'] cr] [idx'|]] fl'].
  - destruct T as (q' & wr & E & S & A). exists q', wr. split; [exact E|]. split; [eapply same_env_trans; eassumption | exact A].
  - destruct T as (q' & E & S & D' & Hbd'). exists q'. split; [exact E|]. split; [eapply same_env_trans; eassumption|]. split; assumption.
Qed.

(* one record on a writer that is not initialised *)
Lemma init_stepg B x pl ar created errs fl b : FInvG (S B) x (GInit pl ar created) errs fl ->
  let '(st', e, fl') := g_init (c_append c) m ll total pl ar created b fl in
  exists x' rot, step x (OWrite b) = (x', ObsRes 0 rot) /\ FInvG B x' st' (errs ++ e) fl'.
Proof.
  intros [q [Ew [Q [Ha [He [Ht [Es [D Hbd]]]]]]]]. rewrite g_init_alt.
  pose proof (initialize_cleanup_fw B q fl pl ar created Q D Hbd) as IF.
  destruct (g_init_res (c_append c) pl ar created fl) as [[[[pl' ar'] cr] [idx1|]] fl'].
  - destruct IF as [q' [wr [Ei [S A]]]].
    set (x1 := {| s_flw := Some (mkflw c (actg (N.of_nat idx1) 0 wr)); s_w := fw q' fl'; s_tl := []; s_dead := s_dead x |}).
    assert (E : step x (OWrite b) = step x1 (OWrite b)).
    { apply (step_write_same x x1 _ _ b Es eq_refl eq_refl eq_refl eq_refl Hts Hasync Ht eq_refl eq_refl). rewrite Ew. cbn [x1 s_w].
      exact (write_buffer_init c (fw q fl) b _ wr (cname c) (fw q' fl') Ei). }
    rewrite E.
    apply (active_stepg B x1 false q' fl' errs pl' ar' idx1 [] wr b eq_refl (proj1 S)).
    + exact (same_env_acts _ _ S Ha).
    + destruct S as [_ [_ [_ [H _]]]]. congruence.
    + reflexivity.
    + reflexivity.
    + exact A.
  - destruct IF as [q' [Ei [S [D' Hbd']]]].
    assert (E : write_buffer (mkflw c Initial) (s_w x) b = (Err, fw q' fl', mkflw c Initial, false)).
    { rewrite Ew. unfold write_buffer. cbn [mkflw f_cfg f_inner]. rewrite Ei. reflexivity. }
    eexists _, _. split; [apply (step_write_sync x _ b Err _ _ false Es eq_refl Hts Hasync Ht E); discriminate|].
    destruct (report_ewrite_fw q q' [] errs fl' (same_env_reported _ _ S) Ha He) as [Ew' [Q' [Ha' [He' F4]]]].
    exists (report EWrite q'). cbn [s_w s_tl s_flw]. unfold DG in *. rewrite F4. auto 10.
Qed.

Theorem gfstep B x st errs fl b : FInvG (S B) x st errs fl ->
  let '(st', e, fl') := gstep (c_append c) m ll total st fl b in
  exists x' rot, step x (OWrite b) = (x', ObsRes 0 rot) /\ FInvG B x' st' (errs ++ e) fl'.
Proof.
  intros I. destruct st as [pl ar created|pl ar idx d|pl ar idx d]; cbn [gstep].
  - apply init_stepg. exact I.
  - destruct I as [q [Ew [Q [Ha [He [Ht [wr [Es A]]]]]]]]. exact (active_stepg B x false q fl errs pl ar idx d wr b Ew Q Ha He Ht Es A).
  - destruct I as [q [Ew [Q [Ha [He [Ht [wr [Es A]]]]]]]]. exact (active_stepg B x true q fl errs pl ar idx d wr b Ew Q Ha He Ht Es A).
Qed.

Definition gfrun := run_writes gst (gstep (c_append c) m ll total) (simg_st (c_append c) m ll total) (fun _ _ => eq_refl)
                     (fun _ _ _ _ => eq_refl) FInvG gfstep.

Lemma finvg_final B x st errs fl : FInvG B x st errs fl ->
  (exists o, xdir c (wfs (s_w x)) (g_plain st) (g_arch st) o /\ cur_is (wfs (s_w x)) (g_cur st) o)
  /\ werrs (s_w x) = errs /\ wfaults (s_w x) = fl /\ wkill (s_w x) = None.
Proof.
  intros [q [Ew [Q [Ha [He [Ht I]]]]]]. rewrite Ew. cbn [fw set_faults wfs werrs wfaults wkill].
  split; [|split; [exact He | split; [reflexivity | apply Q]]].
  destruct st as [pl ar created|pl ar idx d|pl ar idx d]; cbn [g_plain g_arch g_cur].
  - destruct I as [_ [(o & G & Ho) _]]. exists o. split; [exact G|]. destruct created.
    + destruct Ho as (j & -> & Cj). exact Cj.
    + subst o. exact I.
  - destruct I as [wr [_ (_ & _ & _ & G & C)]]. exists (Some (wino wr)). split; assumption.
  - destruct I as [wr [_ (_ & _ & _ & G & L)]]. exists None. split; [exact G | exact I].
Qed.

Lemma finvg_start B t0 off fl : (N.of_nat B <= u32_max)%N ->
  FInvG B (fst (step (fsys t0 off fl) (OStart c))) (GInit [] [] false) [] fl.
Proof.
  intros HB. exists (world0 t0 off). split; [reflexivity|]. split; [split; reflexivity|]. split; [reflexivity|]. split; [reflexivity|].
  split; [reflexivity|]. split; [reflexivity|]. split; [|exact HB].
  exists None. split; [|reflexivity]. constructor.
  - exact wf_empty.
  - constructor.
  - constructor.
  - constructor.
  - intros i d [].
  - intros i d [].
  - reflexivity.
  - intros nm j H. discriminate H.
Qed.

Definition gst_asc (st : gst) : Prop :=
  match st with GInit pl _ _ => asc pl | GCur pl _ idx d | GOld pl _ idx d => asc (pl ++ [(idx, d)]) end.
Lemma finvg_asc B x st errs fl : FInvG B x st errs fl -> gst_asc st.
Proof.
  intros [q [_ [_ [_ [_ [_ I]]]]]]. destruct st as [pl ar created|pl ar idx d|pl ar idx d]; cbn [gst_asc].
  - destruct I as [_ [(o & G & _) _]]. exact (xd_ascp _ _ _ _ _ G).
  - destruct I as [wr [_ (_ & _ & Hb & G & _)]]. apply asc_snoc; [exact (xd_ascp _ _ _ _ _ G) | exact Hb].
  - destruct I as [wr [_ (_ & _ & _ & G & _)]]. exact (xd_ascp _ _ _ _ _ G).
Qed.

End G.

Theorem faults_cleanup_dir c m k ll cl t0 off fl recs :
  numkcfg c (CSize m) k -> klim k = Some (ll, cl) -> c_cap c = None -> sfx_ok (c_spec c) ->
  (N.of_nat (length recs) <= u32_max)%N ->
  let r := run (fsys t0 off fl) (OStart c :: List.map OWrite recs) in
  let '(st, errs, rest) := simg_st (c_append c) m ll (ll + cl) (GInit [] [] false) fl recs in
  (exists o, xdir c (wfs (s_w (fst r))) (g_plain st) (g_arch st) o /\ cur_is (wfs (s_w (fst r))) (g_cur st) o)
  /\ werrs (s_w (fst r)) = errs
  /\ wfaults (s_w (fst r)) = rest
  /\ Forall obs_normal (snd r).
Proof.
  intros Hcfg Hk Hcap Hsfx HB. cbv zeta.
  pose proof (finvg_start c m k (length recs) t0 off fl HB) as I0.
  pose proof (gfrun c m k ll cl Hcfg Hk Hcap Hsfx recs _ _ _ _ I0) as R.
  destruct (simg_st (c_append c) m ll (ll + cl) (GInit [] [] false) fl recs) as [[st e] fl'].
  destruct R as [x' [obs [R [I O]]]]. cbn [app] in I.
  rewrite run_start, R. cbn [fst snd].
  destruct (finvg_final c m k 0 x' st e fl' I) as [V [He [Hf _]]].
  split; [exact V|]. split; [exact He|]. split; [exact Hf|].
  constructor; [exists false; reflexivity | exact O].
Qed.

Definition embed (st : kst) : gst :=
  match st with KInit cl created => GInit cl [] created | KCur cl idx d => GCur cl [] idx d | KOld cl idx d => GOld cl [] idx d end.

Lemma deli_mid A i (d : bytes) B : asc (A ++ (i, d) :: B) -> deli i (A ++ (i, d) :: B) = A ++ B.
Proof.
  intros S. unfold deli. rewrite filter_app. cbn [filter fst]. rewrite Nat.eqb_refl. cbn [negb]. rewrite <- filter_app.
  apply filter_all_true. intros [j e] Hj. cbn [fst]. destruct (Nat.eqb_spec j i) as [->|_]; [|reflexivity].
  exfalso. exact (asc_mid_notin A i d B e S Hj).
Qed.

Lemma g_loop_skip n : forall (a : cdir) rest k pl fl, k + length a <= n ->
  g_loop (List.map (pair false) a ++ rest) k n n pl [] fl = g_loop rest (k + length a) n n pl [] fl.
Proof.
  induction a as [|[i d] a IH]; intros rest k pl fl H; cbn [List.map app length] in *; [rewrite Nat.add_0_r; reflexivity|].
  cbn [g_loop]. destruct (Nat.leb_spec n k) as [X|_]; [lia|]. rewrite IH by lia. f_equal. lia.
Qed.
Lemma g_loop_remove n : forall (old keep : cdir) k fl, old = [] \/ n <= k -> asc (rev old ++ keep) ->
  g_loop (List.map (pair false) old) k n n (rev old ++ keep) [] fl
  = let '(rest, ok, fl') := s_remove old fl in (rev rest ++ keep, [], ok, fl').
Proof.
  induction old as [|[i d] old IH]; intros keep k fl Hk S; cbn [List.map g_loop s_remove]; [reflexivity|].
  destruct Hk as [Hk|Hk]; [discriminate Hk|]. destruct (Nat.leb_spec n k) as [_|X]; [|lia].
  destruct (pop fl) as [f fl1]. destruct f; [reflexivity|].
  cbn [rev] in *. rewrite <- app_assoc in *. cbn [app] in *. rewrite (deli_mid _ _ _ _ S).
  apply IH; [right; lia | exact (asc_drop _ _ _ S)].
Qed.

Lemma s_cleanup_g n pl fl : asc pl ->
  g_cleanup n (n + 0) pl [] fl = let '(cl2, ok, fl') := s_cleanup n pl fl in (cl2, [], ok, fl').
Proof.
  intros S. unfold g_cleanup, s_cleanup, g_redundant, g_listing. rewrite Nat.add_0_r. cbn [rev filter g_red List.map negb].
  destruct (pop fl) as [f0 fl0]. destruct f0; [reflexivity|]. rewrite app_nil_r.
  set (desc := rev pl).
  assert (E : pl = rev (skipn n desc) ++ rev (firstn n desc)) by (unfold desc; rewrite <- rev_app_distr, firstn_skipn, rev_involutive; reflexivity).
  replace (List.map (pair false) desc) with (List.map (pair false) (firstn n desc) ++ List.map (pair false) (skipn n desc))
    by (rewrite <- map_app, firstn_skipn; reflexivity).
  rewrite g_loop_skip by (cbn [Nat.add]; apply firstn_le_length). rewrite E at 1. rewrite g_loop_remove.
  - destruct (s_remove (skipn n desc) fl0) as [[rest ok] fl1]. reflexivity.
  - destruct (Nat.le_gt_cases n (length desc)) as [X|X].
    + right. rewrite firstn_length_le by exact X. apply Nat.le_refl.
    + left. apply skipn_all2. lia.
  - rewrite <- E. exact S.
Qed.

Lemma g_active_embed m n (old : bool) (cl : cdir) idx (d b : bytes) fl : ((m <? N.of_nat (length d))%N = true -> asc (cl ++ [(idx, d)])) ->
  g_active m n (n + 0) old cl [] idx d b fl = let '(st', e, fl') := k_active m n old cl idx d b fl in (embed st', e, fl').
Proof.
  intros S. unfold g_active, k_active. destruct (m <? N.of_nat (length d))%N.
  - destruct (pop fl) as [f1 fl1]. destruct f1; [destruct (s_write d b fl1) as [[d' e] fl2]; destruct old; reflexivity|].
    destruct (pop fl1) as [f2 fl2]. destruct f2; [destruct (s_write d b fl2) as [[d' e] fl3]; reflexivity|].
    rewrite (s_cleanup_g _ _ _ (S eq_refl)). destruct (s_cleanup n (cl ++ [(idx, d)]) fl2) as [[cl2 ok] fl3].
    destruct (s_write [] b fl3) as [[d' e] fl4]. reflexivity.
  - destruct (s_write d b fl) as [[d' e] fl1]. destruct old; reflexivity.
Qed.

Lemma g_init_embed ap m n (cl : cdir) created b fl : asc cl ->
  g_init ap m n (n + 0) cl [] created b fl = let '(st', e, fl') := k_init ap m n cl created b fl in (embed st', e, fl').
Proof.
  intros S. unfold g_init, k_init, g_next. change (next_idx []) with 0. rewrite Nat.max_0_r.
  destruct (pop fl) as [f1 fl1]. destruct f1; [reflexivity|].
  destruct (if ap then (false, fl1) else pop fl1) as [f2 fl2]. destruct f2; [reflexivity|].
  destruct (pop fl2) as [f3 fl3]. destruct f3; [reflexivity|].
  destruct (if ap then pop fl3 else (false, fl3)) as [f4 fl4]. destruct f4; [reflexivity|].
  rewrite s_cleanup_g.
  - destruct (s_cleanup n _ fl4) as [[cl2 ok] fl5]. destruct ok; [|reflexivity].
    apply g_active_embed. cbn [length N.of_nat]. intros X. apply N.ltb_lt in X. lia.
  - destruct ap; [exact S|]. destruct created; [|exact S]. apply asc_snoc; [exact S | apply asc_below_next; exact S].
Qed.

Lemma gstep_embed ap m n st fl b : gst_asc (embed st) ->
  gstep ap m n (n + 0) (embed st) fl b = let '(st', e, fl') := kstep ap m n st fl b in (embed st', e, fl').
Proof.
  destruct st as [cl created|cl idx d|cl idx d]; cbn [embed gst_asc gstep kstep]; intros S;
    [apply g_init_embed; exact S | apply g_active_embed; intros _; exact S | apply g_active_embed; intros _; exact S].
Qed.

Section K.
Variables (c : config) (m : N) (n : nat).
Hypothesis Hcfg : numkcfg c (CSize m) (KLog n).
Hypothesis Hcap : c_cap c = None.
Hypothesis Hsfx : sfx_ok (c_spec c).

Definition FInvK (B : nat) (x : sys) (st : kst) (errs : list ecode) (fl : list bool) : Prop :=
  FInvG c m (KLog n) B x (embed st) errs fl.

Theorem kfstep B x st errs fl b : FInvK (S B) x st errs fl ->
  let '(st', e, fl') := kstep (c_append c) m n st fl b in
  exists x' rot, step x (OWrite b) = (x', ObsRes 0 rot) /\ FInvK B x' st' (errs ++ e) fl'.
Proof.
  intros I. pose proof (gfstep c m (KLog n) n 0 Hcfg eq_refl Hcap Hsfx B x (embed st) errs fl b I) as S.
  rewrite (gstep_embed _ _ _ _ _ _ (finvg_asc _ _ _ _ _ _ _ _ I)) in S.
  destruct (kstep (c_append c) m n st fl b) as [[st' e] fl']. exact S.
Qed.

Definition kfrun := run_writes kst (kstep (c_append c) m n) (simk_st (c_append c) m n) (fun _ _ => eq_refl)
                     (fun _ _ _ _ => eq_refl) FInvK kfstep.

(* what a reader finds: exactly the closed files r<i> with their contents (plain files), rCURRENT with its content
   or no rCURRENT, nothing else *)
Definition kview (f : fs) (cl : cdir) (ocur : option bytes) : Prop :=
  fs_wf f /\ asc cl
  /\ (forall i d, In (i, d) cl -> exists j, lookup f (rname c i) = Some j /\ plain (inode f j) /\ content f j = d)
  /\ match ocur with
     | Some d => exists j, lookup f (cname c) = Some j /\ plain (inode f j) /\ content f j = d
     | None => lookup f (cname c) = None
     end
  /\ (forall nm j, lookup f nm = Some j -> nm = cname c \/ exists i d, In (i, d) cl /\ nm = rname c i).

Lemma gdir_kview f cl o ocur : gdir c f cl o -> cur_is f ocur o -> kview f cl ocur.
Proof.
  intros G H. split; [exact (gd_wf _ _ _ _ G)|]. split; [exact (gd_asc _ _ _ _ G)|]. split; [exact (gd_files _ _ _ _ G)|].
  split; [|exact (gd_only _ _ _ _ G)]. pose proof (gd_cur _ _ _ _ G) as Hc.
  destruct ocur as [d|], o as [j|]; try contradiction; [destruct Hc as [L P]; exists j; auto | exact Hc].
Qed.

Lemma finvk_final B x st errs fl : FInvK B x st errs fl ->
  kview (wfs (s_w x)) (k_closed st) (k_cur st) /\ nodup_names (wfs (s_w x))
  /\ werrs (s_w x) = errs /\ wfaults (s_w x) = fl /\ wkill (s_w x) = None.
Proof.
  intros I. destruct (finvg_final _ _ _ _ _ _ _ _ I) as [(o & G & Ho) R].
  assert (E : g_plain (embed st) = k_closed st /\ g_arch (embed st) = [] /\ g_cur (embed st) = k_cur st) by (destruct st; repeat split).
  destruct E as (E1 & E2 & E3). rewrite E1, E2, E3 in *.
  split; [exact (gdir_kview _ _ o _ (xdir_gdir c _ _ _ G) Ho)|]. split; [exact (xd_nd _ _ _ _ _ G) | exact R].
Qed.

Lemma finvk_start B t0 off fl : (N.of_nat B <= u32_max)%N ->
  FInvK B (fst (step (fsys t0 off fl) (OStart c))) (KInit [] false) [] fl.
Proof. apply finvg_start. Qed.

End K.

Theorem faults_rotation_cleanup_st c m n t0 off fl recs :
  numkcfg c (CSize m) (KLog n) -> c_cap c = None -> sfx_ok (c_spec c) -> (N.of_nat (length recs) <= u32_max)%N ->
  let r := run (fsys t0 off fl) (OStart c :: List.map OWrite recs) in
  let '(st, errs, rest) := simk_st (c_append c) m n (KInit [] false) fl recs in
  kview c (wfs (s_w (fst r))) (k_closed st) (k_cur st)
  /\ nodup_names (wfs (s_w (fst r)))
  /\ werrs (s_w (fst r)) = errs
  /\ wfaults (s_w (fst r)) = rest
  /\ Forall obs_normal (snd r).
Proof.
  intros Hcfg Hcap Hsfx HB. cbv zeta.
  pose proof (finvk_start c m n (length recs) t0 off fl HB) as I0.
  pose proof (kfrun c m n Hcfg Hcap Hsfx recs _ _ _ _ I0) as R.
  destruct (simk_st (c_append c) m n (KInit [] false) fl recs) as [[st e] fl'].
  destruct R as [x' [obs [R [I O]]]]. cbn [app] in I.
  rewrite run_start, R. cbn [fst snd].
  destruct (finvk_final c m n 0 x' st e fl' I) as [V [Nd [He [Hf _]]]].
  split; [exact V|]. split; [exact Nd|]. split; [exact He|]. split; [exact Hf|].
  constructor; [exists false; reflexivity | exact O].
Qed.

(* (1) For every fault oracle fl and every list of records: after  OStart c :: map OWrite recs  from the empty directory
   with the oracle fl, the directory is exactly what simk says - the closed files r<i> of the list hold the contents
   given there, rCURRENT holds the current content or does not exist, nothing else is there -, the error channel holds
   exactly the errors simk lists (with their codes, in order), the oracle is consumed as simk says, and every log call
   (and the start) returns normally: no panic, no error result.
   (The bound on the number of records: the index that an initialisation reads off the directory is parsed as u32.) *)
Theorem faults_rotation_cleanup c m n t0 off fl recs :
  numkcfg c (CSize m) (KLog n) -> c_cap c = None -> sfx_ok (c_spec c) -> (N.of_nat (length recs) <= u32_max)%N ->
  let r := run (fsys t0 off fl) (OStart c :: List.map OWrite recs) in
  let '(closed, ocur, errs, rest) := simk (c_append c) m n fl recs in
  kview c (wfs (s_w (fst r))) closed ocur
  /\ werrs (s_w (fst r)) = errs
  /\ wfaults (s_w (fst r)) = rest
  /\ (forall o, In o (snd r) -> exists rot, o = ObsRes 0 rot).
Proof.
  intros Hcfg Hcap Hsfx HB. cbv zeta. unfold simk.
  pose proof (faults_rotation_cleanup_st c m n t0 off fl recs Hcfg Hcap Hsfx HB) as R. cbv zeta in R.
  destruct (simk_st (c_append c) m n (KInit [] false) fl recs) as [[st e] fl'].
  destruct R as [V [_ [He [Hf O]]]]. rewrite Forall_forall in O. auto.
Qed.
Print Assumptions faults_rotation_cleanup.

(* (2), (3) in terms of the run, record by record.  With t = ktrace .. the list of log calls (record, its reports, the
   oracle entries its call consumed - they partition the consumed part of the oracle, and the reports are those on the
   error channel) and lg = klog .. the files that were closed for good, in order: the LOG - the contents of lg, then the
   content of the file the writer writes into - is the concatenation of the records that were kept; every closed file
   in the directory is one of lg (same index, same content) or an empty file left by a failed initialisation - the
   cleanup only deletes whole closed files -; a record whose log call consumed only `false` entries is kept and nothing
   is reported for it; a record that is missing had a failing call in its own log call and was reported with EWrite *)
Theorem faults_rotation_cleanup_trace c m n t0 off fl recs :
  numkcfg c (CSize m) (KLog n) -> c_cap c = None -> sfx_ok (c_spec c) -> (N.of_nat (length recs) <= u32_max)%N ->
  let x := fst (run (fsys t0 off fl) (OStart c :: List.map OWrite recs)) in
  let t := ktrace (c_append c) m n (KInit [] false) fl recs in
  let lg := klog (c_append c) m n (KInit [] false) fl recs in
  exists st,
    kview c (wfs (s_w x)) (k_closed st) (k_cur st)
    /\ concat (List.map snd lg) ++ k_wcur st = concat (List.map t_kept t)
    /\ (forall p, In p (k_cl st) -> In p lg \/ snd p = [])
    /\ List.map t_rec t = recs
    /\ werrs (s_w x) = concat (List.map t_errs t)
    /\ fl = concat (List.map t_used t) ++ wfaults (s_w x)
    /\ (forall e, In e t -> length (t_errs e) = ntrue (t_used e))
    /\ (forall e, In e t -> (forall f, In f (t_used e) -> f = false) -> t_errs e = [] /\ t_kept e = t_rec e)
    /\ (forall e, In e t -> t_kept e <> t_rec e -> In true (t_used e) /\ In EWrite (t_errs e)).
Proof.
  intros Hcfg Hcap Hsfx HB. cbv zeta.
  pose proof (faults_rotation_cleanup c m n t0 off fl recs Hcfg Hcap Hsfx HB) as Fr. cbv zeta in Fr. unfold simk in Fr.
  pose proof (lost_only_around_failures_k (c_append c) m n fl recs) as L.
  destruct (simk_st (c_append c) m n (KInit [] false) fl recs) as [[st e] fl']. cbv zeta in L.
  destruct Fr as [V [He [Hf _]]]. destruct L as [H1 [H2 [H3 [H4 [H5 [H6 [H7 H8]]]]]]].
  exists st. rewrite He, Hf. split; [exact V|]. split; [exact H4|]. split; [exact H5|]. split; [exact H1|]. split; [exact H3|].
  split; [exact H2|]. auto.
Qed.
Print Assumptions faults_rotation_cleanup_trace.

(* the same as a count: the log is the concatenation of a subsequence of the records; each missing record is one
   EWrite on the error channel *)
Theorem faults_rotation_cleanup_stream c m n t0 off fl recs :
  numkcfg c (CSize m) (KLog n) -> c_cap c = None -> sfx_ok (c_spec c) -> (N.of_nat (length recs) <= u32_max)%N ->
  let x := fst (run (fsys t0 off fl) (OStart c :: List.map OWrite recs)) in
  exists st kept,
    kview c (wfs (s_w x)) (k_closed st) (k_cur st)
    /\ concat (List.map snd (klog (c_append c) m n (KInit [] false) fl recs)) ++ k_wcur st = concat kept
    /\ Subseq kept recs
    /\ length recs = length kept + nlost (werrs (s_w x))
    /\ nlost (werrs (s_w x)) <= length (werrs (s_w x)).
Proof.
  intros Hcfg Hcap Hsfx HB. cbv zeta.
  pose proof (faults_rotation_cleanup c m n t0 off fl recs Hcfg Hcap Hsfx HB) as Fr. cbv zeta in Fr. unfold simk in Fr.
  pose proof (loss_is_reported_k (c_append c) m n recs (KInit [] false) fl) as L.
  destruct (simk_st (c_append c) m n (KInit [] false) fl recs) as [[st e] fl'].
  destruct Fr as [V [He _]]. destruct L as [kept [Hs [Hst [Hl Hle]]]].
  exists st, kept. rewrite He. split; [exact V|]. split; [exact Hst|]. auto.
Qed.
Print Assumptions faults_rotation_cleanup_stream.

(* (4) THE LIMIT IS RESTORED, at the level of the run.  When the oracle has been used up by the records recs1 (what is left
   is empty or all `false`) and the next log call initialises or rotates (krotates: it therefore runs the cleanup),
   then after it and whatever records follow: the writer is on rCURRENT, AT MOST n CLOSED FILES exist, and nothing more
   has been reported *)
Theorem cleanup_limit_restored c m n t0 off fl recs1 b recs2 :
  numkcfg c (CSize m) (KLog n) -> c_cap c = None -> sfx_ok (c_spec c) ->
  (N.of_nat (length (recs1 ++ b :: recs2)) <= u32_max)%N ->
  let '(st1, e1, fl1) := simk_st (c_append c) m n (KInit [] false) fl recs1 in
  all_false fl1 -> krotates m st1 = true ->
  let x := fst (run (fsys t0 off fl) (OStart c :: List.map OWrite (recs1 ++ b :: recs2))) in
  exists cl d, kview c (wfs (s_w x)) cl (Some d) /\ length cl <= n /\ werrs (s_w x) = e1.
Proof.
  intros Hcfg Hcap Hsfx HB.
  pose proof (faults_rotation_cleanup c m n t0 off fl (recs1 ++ b :: recs2) Hcfg Hcap Hsfx HB) as Fr. cbv zeta in Fr. unfold simk in Fr.
  rewrite simk_st_app in Fr.
  pose proof (simk_st_pending (c_append c) m n recs1 (KInit [] false) fl I) as P1.
  destruct (simk_st (c_append c) m n (KInit [] false) fl recs1) as [[st1 e1] fl1] eqn:E1. cbn [fst] in P1.
  intros Hf Hk. cbv zeta.
  assert (Hk' : krotates m (fst (fst (simk_st (c_append c) m n st1 fl1 []))) = true) by exact Hk.
  pose proof (cleanup_limit_restored_spec (c_append c) m n [] b recs2 st1 fl1 Hf P1 Hk') as R. cbn [app] in R.
  destruct (simk_st (c_append c) m n st1 fl1 (b :: recs2)) as [[st2 e2] fl2].
  destruct R as [-> [_ [Hl (cl & idx & d & ->)]]]. destruct Fr as [V [He _]].
  exists cl, d. split; [exact V|]. split; [exact Hl|]. rewrite He, app_nil_r. reflexivity.
Qed.
Print Assumptions cleanup_limit_restored.

(* ------------------------------------------------------------------ the statement, computed on examples *)
Import String.StringSyntax.
Open Scope string_scope.
Definition kx_cfg (app : bool) (m : N) (n : nat) : config :=
  {| c_spec := {| fbase := bs "app"; fdisc := None; fts := false; fsfx := Some (bs "log") |};
     c_append := app; c_cap := None; c_rot := Some (CSize m, NNumbers, KLog n); c_utc := false;
     c_symlink := false; c_bg := false; c_async := false; c_start := None |}.
Lemma kx_numkcfg app m n : numkcfg (kx_cfg app m n) (CSize m) (KLog n) /\ c_cap (kx_cfg app m n) = None /\ sfx_ok (c_spec (kx_cfg app m n)).
Proof. repeat split. Qed.

(* the run: the directory (name, kind, content; sorted by name), the error channel, the rest of the oracle, and
   whether every log call returned normally *)
Definition kx_run (app : bool) (m : N) (n : nat) (fl : list bool) (recs : list bytes)
  : list (bytes * N * bytes) * list ecode * list bool * bool :=
  let r := run (fsys 0 0 fl) (OStart (kx_cfg app m n) :: List.map OWrite recs) in
  (snap_of (fst r), werrs (s_w (fst r)), wfaults (s_w (fst r)), forallb obs_normalb (snd r)).
(* the specification, as a directory *)
Definition kx_sim (app : bool) (m : N) (n : nat) (fl : list bool) (recs : list bytes)
  : list (bytes * N * bytes) * list ecode * list bool * bool :=
  let '(cl, ocur, e, rest) := simk app m n fl recs in
  (List.map (fun p => (rname (kx_cfg app m n) (fst p), 0%N, snd p)) cl
   ++ match ocur with Some d => [(cname (kx_cfg app m n), 0%N, d)] | None => [] end, e, rest, true).

Definition recs8 : list bytes := [bs "abcd"; bs "efgh"; bs "ijkl"; bs "mnop"; bs "qrst"; bs "uvwx"; bs "yz"; bs "12"].
Definition recs6 : list bytes := [bs "abcd"; bs "ef"; bs "gh"; bs "ijkl"; bs "mn"; bs "opqr"].
Definition r2 := bs "app_r00002.log".
Definition r3 := bs "app_r00003.log".
Definition r5 := bs "app_r00005.log".

(* size limit 3, KeepLogFiles 1, no append.  The fallible calls: first record  read_dir, rename, open, [cleanup:] read_dir,
   write;  a rotating record  rename, create, [cleanup:] read_dir, remove_file ..., write *)
(* no failure: one closed file is kept *)
Example kx_none : kx_run false 3 1 [] recs8 = ([(r5, 0%N, bs "uvwx"); (rC, 0%N, bs "yz12")], [], [], true)
               /\ kx_sim false 3 1 [] recs8 = kx_run false 3 1 [] recs8.
Proof. split; vm_compute; reflexivity. Qed.

(* (vi) COUNTEREXAMPLE to "a failure inside the cleanup never loses a record": the read_dir of the cleanup that ends the
   INITIALISATION fails (4th call): initialize fails as a whole, "abcd" is lost and reported (EWrite) although its write
   was never attempted, the log call returns normally; rCURRENT has been created and is empty ... *)
Example kx_init_cleanup_fails_loses_record :
  kx_run false 3 1 [F;F;F;T] [bs "abcd"] = ([(rC, 0%N, [])], [EWrite], [], true)
  /\ kx_sim false 3 1 [F;F;F;T] [bs "abcd"] = kx_run false 3 1 [F;F;F;T] [bs "abcd"].
Proof. split; vm_compute; reflexivity. Qed.
(* ... and the next initialisation (no append) renames it: an EMPTY closed file r00000 appears *)
Example kx_init_cleanup_fails_then_recovers :
  kx_run false 3 1 [F;F;F;T] (firstn 2 recs8) = ([(r0, 0%N, []); (rC, 0%N, bs "efgh")], [EWrite], [], true)
  /\ kx_sim false 3 1 [F;F;F;T] (firstn 2 recs8) = kx_run false 3 1 [F;F;F;T] (firstn 2 recs8).
Proof. split; vm_compute; reflexivity. Qed.
(* with append the empty rCURRENT is continued *)
Example kx_init_cleanup_fails_append :
  kx_run true 3 1 [F;F;F;T] (firstn 2 recs8) = ([(rC, 0%N, bs "efgh")], [EWrite], [], true)
  /\ kx_sim true 3 1 [F;F;F;T] (firstn 2 recs8) = kx_run true 3 1 [F;F;F;T] (firstn 2 recs8).
Proof. split; vm_compute; reflexivity. Qed.

(* (v) AT A ROTATION nothing is lost.  The read_dir of the cleanup of the 2nd rotation fails (reported: ELogFile), "ijkl" is
   written into the new rCURRENT; two closed files are there instead of one *)
Example kx_rot_cleanup_listing_fails :
  kx_run false 3 1 [F;F;F;F;F; F;F;F;F; F;F;T] (firstn 3 recs8)
  = ([(r0, 0%N, bs "abcd"); (r1, 0%N, bs "efgh"); (rC, 0%N, bs "ijkl")], [ELogFile], [], true)
  /\ kx_sim false 3 1 [F;F;F;F;F; F;F;F;F; F;F;T] (firstn 3 recs8) = kx_run false 3 1 [F;F;F;F;F; F;F;F;F; F;F;T] (firstn 3 recs8).
Proof. split; vm_compute; reflexivity. Qed.
(* ... at the 3rd rotation the cleanup removes r00001 and then fails to remove r00000 (the removals go from the newest
   surplus file to the oldest): a GAP in the numbers, still one file too many, nothing lost *)
Example kx_rot_cleanup_remove_fails_gap :
  kx_run false 3 1 [F;F;F;F;F; F;F;F;F; F;F;T;F; F;F;F;F;T] (firstn 4 recs8)
  = ([(r0, 0%N, bs "abcd"); (r2, 0%N, bs "ijkl"); (rC, 0%N, bs "mnop")], [ELogFile; ELogFile], [], true)
  /\ kx_sim false 3 1 [F;F;F;F;F; F;F;F;F; F;F;T;F; F;F;F;F;T] (firstn 4 recs8)
     = kx_run false 3 1 [F;F;F;F;F; F;F;F;F; F;F;T;F; F;F;F;F;T] (firstn 4 recs8)
  /\ simk false 3 1 [F;F;F;F;F; F;F;F;F; F;F;T;F; F;F;F;F;T] (firstn 4 recs8)
     = ([(0, bs "abcd"); (2, bs "ijkl")], Some (bs "mnop"), [ELogFile; ELogFile], []).
Proof. split; [vm_compute; reflexivity|]. split; vm_compute; reflexivity. Qed.
(* ... the oracle is used up: the next rotation cleans up everything, the limit holds again *)
Example kx_limit_restored :
  kx_run false 3 1 [F;F;F;F;F; F;F;F;F; F;F;T;F; F;F;F;F;T] (firstn 5 recs8)
  = ([(r3, 0%N, bs "mnop"); (rC, 0%N, bs "qrst")], [ELogFile; ELogFile], [], true)
  /\ kx_sim false 3 1 [F;F;F;F;F; F;F;F;F; F;F;T;F; F;F;F;F;T] (firstn 5 recs8)
     = kx_run false 3 1 [F;F;F;F;F; F;F;F;F; F;F;T;F; F;F;F;F;T] (firstn 5 recs8).
Proof. split; vm_compute; reflexivity. Qed.
(* the hypotheses of cleanup_limit_restored hold for this history: after four records the oracle is used up and the
   fifth rotates *)
Example kx_limit_restored_hyps :
  let '(st1, e1, fl1) := simk_st false 3 1 (KInit [] false) [F;F;F;F;F; F;F;F;F; F;F;T;F; F;F;F;F;T] (firstn 4 recs8) in
  fl1 = [] /\ krotates 3 st1 = true /\ e1 = [ELogFile; ELogFile].
Proof. vm_compute. repeat split. Qed.

Definition kagree (app : bool) (m : N) (n : nat) (recs : list bytes) (fl : list bool) : bool :=
  let '(d1, e1, f1, ok1) := kx_run app m n fl recs in
  let '(d2, e2, f2, ok2) := kx_sim app m n fl recs in
  leqb ent_eqb d1 d2 && leqb ec_eqb e1 e2 && leqb Bool.eqb f1 f2 && Bool.eqb ok1 ok2.
Definition shifted (k l : nat) : list (list bool) := List.map (Datatypes.app (repeat false k)) (all_lists l).
(* the directory part of kx_sim is the snapshot of a directory that kview describes, once its names are in byte order
   (the names r<i> are, as long as the numbers have five digits) *)
Lemma kview_snap c f cl ocur : kview c f cl ocur -> nodup_names f ->
  let L := List.map (fun p => (rname c (fst p), 0%N, snd p)) cl ++ match ocur with Some d => [(cname c, 0%N, d)] | None => [] end in
  SnapFacts.ascending (List.map SnapFacts.ent_name L) = true -> snap_list f = L.
Proof.
  intros (W & A & Hf & Hc & Ho) Nd L S. apply SnapFacts.snap_list_exact; [exact Nd | exact S | |].
  - intros a Ia. apply in_app_or in Ia. destruct Ia as [Ia|Ia].
    + apply in_map_iff in Ia. destruct Ia as [[i e] [<- Hi]]. destruct (Hf i e Hi) as (j & Lj & Pj & Cj). cbn [SnapFacts.ent_name fst snd].
      split; [apply dir_names_lookup; eauto|]. rewrite (SnapFacts.snap_entry_plain f _ j Lj Pj), Cj. reflexivity.
    + destruct ocur as [d|]; [|destruct Ia]. destruct Ia as [<-|[]]. destruct Hc as (j & Lj & Pj & Cj). cbn [SnapFacts.ent_name fst].
      split; [apply dir_names_lookup; eauto|]. rewrite (SnapFacts.snap_entry_plain f _ j Lj Pj), Cj. reflexivity.
  - intros nm j Lj. unfold L. rewrite map_app, map_map. apply in_or_app. destruct (Ho nm j Lj) as [->|(i & d & Hi & ->)].
    + right. destruct ocur as [d|]; [left; reflexivity | congruence].
    + left. apply in_map_iff. exists (i, d). split; [reflexivity | exact Hi].
Qed.

Definition kx_ordered (app : bool) (m : N) (n : nat) (recs : list bytes) (fl : list bool) : bool :=
  SnapFacts.ascending (List.map SnapFacts.ent_name (fst (fst (fst (kx_sim app m n fl recs))))).

Lemma kagree_run app m n recs fl :
  (N.of_nat (length recs) <= u32_max)%N -> kx_ordered app m n recs fl = true -> kagree app m n recs fl = true.
Proof.
  intros HB S. destruct (kx_numkcfg app m n) as (Hcfg & Hcap & Hsfx).
  pose proof (faults_rotation_cleanup_st (kx_cfg app m n) m n 0 0 fl recs Hcfg Hcap Hsfx HB) as R. cbv zeta in R.
  unfold kagree, kx_run. unfold kx_ordered in S. unfold kx_sim, simk in *. change (c_append (kx_cfg app m n)) with app in R.
  destruct (simk_st app m n (KInit [] false) fl recs) as [[st e] rest]. destruct R as (V & Nd & He & Hf & O). cbn [fst] in S.
  rewrite snap_of_list, (kview_snap _ _ _ _ V Nd S), He, Hf, (obs_normalb_all _ (proj1 (Forall_forall _ _) O)).
  rewrite (leqb_refl ent_eqb ent_eqb_refl), (leqb_refl ec_eqb ec_eqb_refl), (leqb_refl Bool.eqb Bool.eqb_reflx). reflexivity.
Qed.
Lemma kagree_all app m n recs fls :
  (N.of_nat (length recs) <= u32_max)%N -> forallb (kx_ordered app m n recs) fls = true -> forallb (kagree app m n recs) fls = true.
Proof. rewrite !forallb_forall. intros HB H fl Hfl. apply kagree_run; [exact HB | exact (H fl Hfl)]. Qed.
Lemma kagree_shifted app m n recs ks l : (N.of_nat (length recs) <= u32_max)%N ->
  forallb (fun k => forallb (kx_ordered app m n recs) (shifted k l)) ks = true ->
  forallb (fun k => forallb (kagree app m n recs) (shifted k l)) ks = true.
Proof. rewrite !forallb_forall. intros HB H k Hk. apply kagree_all; [exact HB | exact (H k Hk)]. Qed.

(* instances of kagree_run: all 511 oracles up to length 8 for five settings (KeepLogFiles 0, 1, 2; with append; empty
   records), and oracles  false^k ++ (an oracle up to length 8)  that reach the remove_file calls of the later cleanups;
   what is computed is only kx_ordered and the bound on the number of records *)
Example kx_agree_all :
  forallb (kagree false 3 1 recs6) (all_lists 8) = true
  /\ forallb (kagree false 3 0 recs6) (all_lists 8) = true
  /\ forallb (kagree true 3 1 recs6) (all_lists 8) = true
  /\ forallb (kagree false 3 2 recs8) (all_lists 8) = true
  /\ forallb (kagree false 1 1 [bs "abcd"; bs ""; bs "efgh"; bs ""; bs "i"; bs "jk"]) (all_lists 8) = true.
Proof.
  split; [apply kagree_all; vm_compute; [discriminate | reflexivity]|].
  split; [apply kagree_all; vm_compute; [discriminate | reflexivity]|].
  split; [apply kagree_all; vm_compute; [discriminate | reflexivity]|].
  split; apply kagree_all; vm_compute; (discriminate || reflexivity).
Qed.
Example kx_agree_shifted :
  forallb (fun k => forallb (kagree false 3 1 recs8) (shifted k 8)) [8; 12; 16]%nat = true
  /\ forallb (fun k => forallb (kagree false 3 2 recs8) (shifted k 8)) [12; 16]%nat = true
  /\ forallb (fun k => forallb (kagree true 3 0 recs8) (shifted k 8)) [8; 12]%nat = true.
Proof.
  split; [apply kagree_shifted; vm_compute; [discriminate | reflexivity]|].
  split; apply kagree_shifted; vm_compute; (discriminate || reflexivity).
Qed.
