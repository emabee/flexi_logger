(* C18 with rotation (Numbers naming): reopen_outputfile() after an external rename of the current file, reopen_outputfile()
   with the file in place, reset(builder) to another Numbers family.

   What the model does:
   - reopen_outputfile() keeps the whole rotation state: the next index AND the roll state (size count, creation date).
     After "rename rCURRENT -> moved; reopen" the new, empty rCURRENT inherits the size count of the file that was
     moved away: the greedy partition is NOT started afresh.  If the moved file was already over the limit, the first
     record after the reopen rotates the EMPTY new rCURRENT into r<k> (an empty numbered file appears), see
     ex_reopen_empty_file.  Nothing is lost, nothing is overwritten, the numbering continues.
   - the new writer is an unbuffered File (wcap = None) until the next rotation; the old BufWriter is dropped, its
     buffered tail is flushed into the inode it has open: the moved file.
   - reopen with the file in place: open_append finds the file, the same inode is continued, the directory at the end
     is the one of the history without the reopen.
   - reset(builder) to another family in the same write mode: the old writer is dropped (buffered tail flushed into the
     old rCURRENT), the new writer starts as in a directory of its own, provided the names of the old family are not
     members of the new family (num_member).  Without that proviso the new writer lists the old files as its own and
     continues their numbering (ex_reset_same_family shows the harmless case of the same family; ex_reset_no_interference
     shows a pair of families that interfered before the repair of the number filter and are foreign since).
   - the name the current file is renamed to must not be a name of the family: renamed to the next numbered name, the file
     is overwritten by the next rotation and its records are lost without any error: ex_reopen_family_name_loses_records.
   Main statements: reopen_numbers, reopen_numbers_partition, reopen_numbers_at_once, reopen_numbers_in_place,
   reset_numbers, reset_numbers_prefix. *)
Require Import FL.Base.Bytes FL.Base.BytesFacts FL.Base.PathName FL.Fs.Fs FL.Fs.FsFacts FL.Time.Civil FL.Time.TsFormat
  FL.Names.FileSpec FL.Names.NamesFacts FL.Flw.Model FL.Flw.ModelFacts FL.Flw.QuietFacts FL.Flw.NumFs FL.Flw.NumInv FL.Flw.Run FL.Flw.RunFacts
  FL.Flw.NumRun FL.Flw.NumTheorems FL.Oracles.O_Flw FL.Flw.NumListing FL.Flw.ForeignFs FL.Flw.ForeignModel FL.Flw.NumForeign.
From Coq Require Import ZifyN ZifyNat ZifyBool.
Open Scope nat_scope.

(* ================================================================== names outside the family *)
(* After reopen and reset the directory holds files that are not members of the family and the writer is an unbuffered
   File: the invariant is NumInvX of NumInv.v. *)
Definition fresh_name (c : config) (n : bytes) : Prop := n <> cname c /\ forall i, n <> rname c i.

(* ================================================================== the abstract view *)
(* the abstract view: closed files, content of the current file, and the ghost part g of the size count: the number of
   bytes that the roll state counts for the current file but that are not in it (they are in the file moved away) *)
Definition xview := (list bytes * bytes * nat)%type.

Definition x_step (v : xview) (o : op) (rot : bool) : xview :=
  let '(cl, cu, g) := v in
  match o with
  | OWrite b | OPlain b => if rot then (cl ++ [cu], b, 0) else (cl, cu ++ b, g)
  | OTrigger => (cl ++ [cu], [], 0)
  | _ => v
  end.

Definition size_of (v : xview) : nat := let '(_, cu, g) := v in g + length cu.

Definition is_wr (o : op) : bool := match o with OWrite _ | OPlain _ => true | _ => false end.

Fixpoint x_run (v : xview) (ops : list op) (obs : list obs) : xview :=
  match ops, obs with
  | o :: r, ob :: robs => x_run (x_step v o (rot_of ob)) r robs
  | _, _ => v
  end.

Fixpoint sx_run (m : N) (v : xview) (ops : list op) : xview :=
  match ops with
  | [] => v
  | o :: r => sx_run m (x_step v o (m <? N.of_nat (size_of v))%N) r
  end.

Definition x_files (v : xview) : list bytes := let '(cl, cu, _) := v in cl ++ [cu].

(* every listed file is there, a plain file with exactly this content; no other name exists *)
Definition dir_holds (f : fs) (files : list (bytes * bytes)) : Prop :=
  (forall n d, In (n, d) files -> exists j, lookup f n = Some j /\ plain (inode f j) /\ content f j = d)
  /\ (forall n j, lookup f n = Some j -> In n (List.map fst files)).

(* ---- the abstract view only ever appends what was written ---- *)
Definition x_flat (v : xview) : bytes := let '(cl, cu, _) := v in concat cl ++ cu.

Lemma x_step_flat v o rot : basic_op o -> x_flat (x_step v o rot) = x_flat v ++ written [o].
Proof.
  destruct v as [[cl cu] g].
  destruct o; try contradiction; intros _; cbn [x_step written]; rewrite ?app_nil_r; try reflexivity.
  - destruct rot; cbn [x_flat]; rewrite ?concat_app; cbn [concat app]; rewrite ?app_nil_r, ?app_assoc; reflexivity.
  - destruct rot; cbn [x_flat]; rewrite ?concat_app; cbn [concat app]; rewrite ?app_nil_r, ?app_assoc; reflexivity.
  - cbn [x_flat]; rewrite ?concat_app; cbn [concat app]; rewrite ?app_nil_r; reflexivity.
Qed.

Lemma x_run_flat ops : forall v obs, Forall basic_op ops -> length obs = length ops ->
  x_flat (x_run v ops obs) = x_flat v ++ written ops.
Proof.
  induction ops as [|o r IH]; intros v obs Hb Hl; [cbn; rewrite app_nil_r; reflexivity|].
  destruct obs as [|ob robs]; [discriminate|]. inversion Hb as [|o' r' Ho Hr]; subst.
  cbn [x_run]. rewrite IH by (auto; cbn in Hl; lia). rewrite x_step_flat by assumption.
  rewrite (written_cons o r), app_assoc. reflexivity.
Qed.

(* the closed files stay, the view is extended *)
Definition x_ext (v v' : xview) : Prop :=
  let '(cl, cu, _) := v in let '(cl', cu', _) := v' in
  (cl' = cl /\ exists t, cu' = cu ++ t) \/ (exists t rest, cl' = cl ++ (cu ++ t) :: rest).

Lemma x_ext_refl v : x_ext v v.
Proof. destruct v as [[cl cu] g]. left. split; [reflexivity|]. exists []. rewrite app_nil_r. reflexivity. Qed.

Lemma x_ext_trans a b c : x_ext a b -> x_ext b c -> x_ext a c.
Proof.
  destruct a as [[cl1 cu1] g1], b as [[cl2 cu2] g2], c as [[cl3 cu3] g3]. cbn [x_ext].
  intros [[-> [t ->]]|[t [rest ->]]] [[-> [t' ->]]|[t' [rest' ->]]].
  - left. split; [reflexivity|]. exists (t ++ t'). rewrite app_assoc. reflexivity.
  - right. exists (t ++ t'), rest'. rewrite app_assoc. reflexivity.
  - right. eauto.
  - right. exists t, (rest ++ (cu2 ++ t') :: rest'). rewrite <- app_assoc. reflexivity.
Qed.

Lemma x_step_ext v o rot : x_ext v (x_step v o rot).
Proof.
  destruct v as [[cl cu] g]. destruct o; cbn [x_step]; try apply (x_ext_refl (cl, cu, g)).
  - destruct rot; [right; exists [], []; rewrite app_nil_r; reflexivity | left; eauto].
  - destruct rot; [right; exists [], []; rewrite app_nil_r; reflexivity | left; eauto].
  - right. exists [], []. rewrite app_nil_r. reflexivity.
Qed.

Lemma x_run_ext ops : forall v obs, x_ext v (x_run v ops obs).
Proof.
  induction ops as [|o r IH]; intros v obs; [apply x_ext_refl|]. destruct obs as [|ob robs]; [apply x_ext_refl|].
  cbn [x_run]. eapply x_ext_trans; [apply x_step_ext | apply IH].
Qed.

(* ================================================================== histories over such an invariant *)
Lemma x_step_v cl cu g o rot :
  x_step (cl, cu, g) o rot = (fst (v_step (cl, cu) o rot), snd (v_step (cl, cu) o rot), if replaced o rot then 0 else g).
Proof. destruct o; try reflexivity; cbn [x_step v_step replaced fst snd]; destruct rot; reflexivity. Qed.

(* The single operations are those of a numbered layout (NumRun.v); the view carries the ghost part of the size count.
   final: the directory that the closed files and the current file make up, the other files of the directory fixed. *)
Section XRun.
  Variables (cfgp : config -> criterion -> Prop) (ns : nat -> naming_state) (cur : config -> nat -> bytes)
            (Inv : config -> world -> writer -> list bytes -> Prop)
            (final : config -> list bytes -> bytes -> list (bytes * bytes)).
  Hypotheses
    (L : active_layout cfgp ns cur Inv)
    (inv_dir : forall c w wr cl, Inv c w wr cl -> wpend wr = [] -> dir_holds (wfs w) (final c cl (cur_view w wr))).
  Variables (c : config) (crit : criterion).
  Hypothesis Hcfg : cfgp c crit.

  (* ---- the relation between the system and the view ---- *)
  Definition RelG (x : sys) (v : xview) : Prop :=
    let '(closed, cu, g) := v in
    s_tl x = [] /\ wacts (s_w x) = 0 /\
    exists wr roll, s_flw x = Some (lay_st ns cur c (length closed) roll wr) /\ Inv c (s_w x) wr closed
      /\ cur_view (s_w x) wr = cu /\ roll_size_ok roll (g + length cu)
      /\ (forall m, crit = CSize m -> exists k, roll = RSize m k).

  Lemma relg_act x cl cu g : RelG x (cl, cu, g) <->
    exists roll, Act ns cur Inv c x (cl, cu) g roll /\ (forall m, crit = CSize m -> exists k, roll = RSize m k).
  Proof.
    split.
    - intros [Ht [Ha [wr [roll [Es [I [V [Z RS]]]]]]]]. exists roll. split; [|exact RS].
      split; [exact Ht|]. split; [exact Ha|]. exists wr. auto.
    - intros [roll [[Ht [Ha [wr [Es [I [V Z]]]]]] RS]]. split; [exact Ht|]. split; [exact Ha|]. exists wr, roll. auto.
  Qed.

  Lemma step_relg x v o : RelG x v -> basic_op o ->
    let '(x', ob) := step x o in
    RelG x' (x_step v o (rot_of ob))
    /\ (forall m, is_wr o = true -> crit = CSize m -> ob = ObsRes 0 (m <? N.of_nat (size_of v))%N).
  Proof.
    destruct v as [[cl cu] g]. intros R Hb. apply relg_act in R. destruct R as [roll [A RS]].
    destruct (step_act _ _ _ _ L c crit x (cl, cu) g roll o Hcfg A Hb) as [roll' [A' [K [Eo _]]]].
    destruct (step x o) as [x' ob]. cbn [fst snd] in A', Eo. subst ob.
    assert (Er : x_step (cl, cu, g) o (rot_of (basic_obs (s_w x) o (rotation_necessary (s_w x) roll)))
                 = x_step (cl, cu, g) o (rotation_necessary (s_w x) roll)) by (destruct o; reflexivity).
    rewrite Er, x_step_v. split.
    - apply relg_act. exists roll'. rewrite <- surjective_pairing.
      split; [exact A' | exact (roll_kept_size _ _ _ _ _ K RS)].
    - intros m Hw Hm. pose proof (size_decision ns cur Inv c x (cl, cu) g roll m A (RS m Hm)) as D.
      cbn [snd] in D. cbn [size_of]. rewrite <- D. destruct o; try discriminate Hw; reflexivity.
  Qed.

  Lemma run_relg : forall ops x v, RelG x v -> Forall basic_op ops -> RelG (fst (run x ops)) (x_run v ops (snd (run x ops))).
  Proof.
    induction ops as [|o r IH]; intros x v R Hb; [exact R|].
    cbn [run]. inversion Hb as [|o' r' Ho Hr]; subst.
    pose proof (step_relg x v o R Ho) as S. destruct (step x o) as [x1 ob].
    destruct S as [R1 _]. specialize (IH x1 _ R1 Hr). destruct (run x1 r) as [x2 obs]. exact IH.
  Qed.

  (* ---- the size rule ---- *)
  Lemma run_sizeg m : crit = CSize m -> forall ops x v, RelG x v -> Forall basic_op ops ->
    x_run v ops (snd (run x ops)) = sx_run m v ops.
  Proof.
    intros Hm. induction ops as [|o r IH]; intros x v R Hb; [reflexivity|].
    cbn [run]. inversion Hb as [|o' r' Ho Hr]; subst.
    pose proof (step_relg x v o R Ho) as S. destruct (step x o) as [x1 ob] eqn:Est.
    destruct S as [R1 C1]. specialize (IH x1 _ R1 Hr). destruct (run x1 r) as [x2 obs] eqn:Er. cbn [snd] in *.
    assert (Erot : x_step v o (rot_of ob) = x_step v o (m <? N.of_nat (size_of v))%N).
    { destruct o; try reflexivity; rewrite (C1 m eq_refl Hm); reflexivity. }
    cbn [x_run sx_run]. rewrite <- Erot. exact IH.
  Qed.

  (* ---- the directory at the end ---- *)
  Lemma stop_relg x closed cu g : RelG x (closed, cu, g) -> dir_holds (wfs (s_w (fst (step x OStop)))) (final c closed cu).
  Proof.
    intros R. apply relg_act in R. destruct R as [roll [A _]].
    destruct (stop_act _ _ _ _ L c crit x (closed, cu) g roll Hcfg A) as [wr' [I' [V' P']]].
    cbn [fst snd] in I', V'. rewrite <- V'. exact (inv_dir _ _ _ _ I' P').
  Qed.

  (* ---- a history from such a state, then stop ---- *)
  Lemma tail_relg x cl cu g ops2 : RelG x (cl, cu, g) -> Forall basic_op ops2 ->
    exists closed2 cur2,
      dir_holds (wfs (s_w (fst (run x (ops2 ++ [OStop]))))) (final c (cl ++ closed2) cur2)
      /\ concat closed2 ++ cur2 = cu ++ written ops2
      /\ (exists t, closed2 ++ [cur2] = (cu ++ t) :: List.tl (closed2 ++ [cur2]))
      /\ (forall m, crit = CSize m -> cl ++ closed2 ++ [cur2] = x_files (sx_run m (cl, cu, g) ops2)).
  Proof.
    intros R Hb. rewrite run_app.
    pose proof (run_relg ops2 x _ R Hb) as R1. pose proof (run_length ops2 x) as Hl.
    assert (Hs : forall m, crit = CSize m -> x_run (cl, cu, g) ops2 (snd (run x ops2)) = sx_run m (cl, cu, g) ops2).
    { intros m Hm. exact (run_sizeg m Hm ops2 x _ R Hb). }
    pose proof (x_run_ext ops2 (cl, cu, g) (snd (run x ops2))) as X.
    pose proof (x_run_flat ops2 (cl, cu, g) (snd (run x ops2)) Hb Hl) as Fl.
    destruct (run x ops2) as [x1 obs1]. cbn [fst snd] in *.
    destruct (x_run (cl, cu, g) ops2 obs1) as [[cl3 cu3] g3] eqn:Ev.
    pose proof (stop_relg x1 cl3 cu3 g3 R1) as S. cbn [run]. destruct (step x1 OStop) as [x2 ob2]. cbn [fst] in *.
    cbn [x_ext x_flat] in X, Fl.
    assert (Ecl : exists closed2, cl3 = cl ++ closed2 /\ exists t, closed2 ++ [cu3] = (cu ++ t) :: List.tl (closed2 ++ [cu3])).
    { destruct X as [[-> [t ->]]|[t [rest ->]]].
      - exists []. rewrite app_nil_r. split; [reflexivity|]. exists t. reflexivity.
      - exists ((cu ++ t) :: rest). split; [reflexivity|]. exists t. reflexivity. }
    destruct Ecl as [closed2 [-> Ht]]. exists closed2, cu3.
    split; [exact S|]. split.
    - rewrite concat_app, <- !app_assoc in Fl. apply app_inv_head in Fl. exact Fl.
    - split; [exact Ht|]. intros m Hm. rewrite <- (Hs m Hm). cbn [x_files]. rewrite app_assoc. reflexivity.
  Qed.
End XRun.


Fixpoint numbered (c : config) (k : nat) (l : list bytes) : list (bytes * bytes) :=
  match l with [] => [] | d :: r => (rname c k, d) :: numbered c (S k) r end.

Lemma numbered_in c l : forall k n d, In (n, d) (numbered c k l) <-> exists i, i < length l /\ n = rname c (k + i) /\ d = nth i l [].
Proof.
  induction l as [|x l IH]; intros k n d; cbn [numbered In length].
  - split; [intros [] | intros [i [Hi _]]; lia].
  - rewrite IH. split.
    + intros [E|[i [Hi [En Ed]]]].
      * injection E as <- <-. exists 0. rewrite Nat.add_0_r. split; [lia|]. split; reflexivity.
      * exists (S i). split; [lia|]. split; [rewrite En; f_equal; lia | exact Ed].
    + intros [[|i] [Hi [En Ed]]].
      * left. rewrite Nat.add_0_r in En. cbn [nth] in Ed. congruence.
      * right. exists i. split; [lia|]. split; [rewrite En; f_equal; lia | exact Ed].
Qed.

Lemma numbered_names c l : forall k n, In n (List.map fst (numbered c k l)) <-> exists i, i < length l /\ n = rname c (k + i).
Proof.
  intros k n. rewrite in_map_iff. split.
  - intros [[n' d] [E H]]. cbn [fst] in E. subst n'. apply numbered_in in H. destruct H as [i [Hi [En _]]]. eauto.
  - intros [i [Hi En]]. exists (n, nth i l []). split; [reflexivity|]. apply numbered_in. eauto.
Qed.

Lemma numbered_app c l1 l2 k : numbered c k (l1 ++ l2) = numbered c k l1 ++ numbered c (k + length l1) l2.
Proof.
  revert k. induction l1 as [|x l1 IH]; intros k; cbn [app numbered length].
  - rewrite Nat.add_0_r. reflexivity.
  - rewrite IH. do 3 f_equal. lia.
Qed.

(* ================================================================== the Numbers naming *)
Lemma numinvx_dir_holds c w wr closed extra : NumInvX c w wr closed extra -> wpend wr = [] ->
  dir_holds (wfs w) (numbered c 0 closed ++ (cname c, cur_view w wr) :: extra).
Proof.
  intros [Q W Hc Hcp Hcl Hex Hon Hfr Hwr] P. split.
  - intros n d Hin. apply in_app_or in Hin. destruct Hin as [Hin|[Hin|Hin]].
    + apply numbered_in in Hin. destruct Hin as [i [Hi [-> ->]]]. cbn [Nat.add]. exact (Hcl i Hi).
    + injection Hin as <- <-. exists (wino wr). split; [exact Hc|]. split; [exact Hcp|].
      unfold cur_view. rewrite P, app_nil_r. reflexivity.
    + exact (Hex n d Hin).
  - intros n j Hn. rewrite map_app. cbn [List.map fst]. apply in_or_app.
    destruct (Hon n j Hn) as [->|[[i [Hi ->]]|Hin]].
    + right. left. reflexivity.
    + left. apply numbered_names. exists i. split; [exact Hi | reflexivity].
    + right. right. exact Hin.
Qed.

Definition RelX (c : config) (crit : criterion) (extra : list (bytes * bytes)) : sys -> xview -> Prop :=
  RelG (fun n => NSNumR (N.of_nat n)) (fun c _ => cname c) (fun c w wr closed => NumInvX c w wr closed extra) c crit.

Lemma tail_relx c crit extra x cl cu g ops2 :
  numcfg c crit -> RelX c crit extra x (cl, cu, g) -> Forall basic_op ops2 ->
  exists closed2 cur2,
    dir_holds (wfs (s_w (fst (run x (ops2 ++ [OStop]))))) (numbered c 0 (cl ++ closed2) ++ (cname c, cur2) :: extra)
    /\ concat closed2 ++ cur2 = cu ++ written ops2
    /\ (exists t, closed2 ++ [cur2] = (cu ++ t) :: List.tl (closed2 ++ [cur2]))
    /\ (forall m, crit = CSize m -> cl ++ closed2 ++ [cur2] = x_files (sx_run m (cl, cu, g) ops2)).
Proof.
  intros Hcfg.
  exact (tail_relg _ _ _ _ (fun c closed cur => numbered c 0 closed ++ (cname c, cur) :: extra) (numx_layout extra)
           (fun c w wr cl0 => numinvx_dir_holds c w wr cl0 extra) c crit Hcfg x cl cu g ops2).
Qed.


(* ================================================================== reopen_outputfile() *)
Lemma plain_with_data fl d : plain fl -> plain (with_data fl d).
Proof. intros H. exact H. Qed.

(* somebody renames the current file to a fresh name, then reopen_outputfile(): the renamed file gets the buffered tail,
   a new empty current file exists, the rotation state is kept: the size count still includes the bytes moved away *)
Lemma reopen_moved_step c crit x cl cu moved :
  numcfg c crit -> Rel c crit x (Some (cl, cu)) -> fresh_name c moved ->
  exists x2, run x [OExtRename (cname c) moved; OReopen] = (x2, [ObsRes 0 false; ObsRes 0 false])
    /\ RelX c crit [(moved, cu)] x2 (cl, [], length cu).
Proof.
  intros Hcfg R [Hm1 Hm2]. pose proof Hcfg as [Hrot [Hts [Hlink Hasync]]].
  cbn [run]. rewrite (step_sync_rel c crit x _ (OExtRename (cname c) moved) Hcfg R).
  destruct R as [Ht [Ha [wr [roll [Es [I [V [Z RS]]]]]]]].
  pose proof I as [Q W Hc Hcp Hcl Hon Hwr Hcap].
  assert (Hfree : lookup (wfs (s_w x)) moved = None).
  { destruct (lookup (wfs (s_w x)) moved) as [j|] eqn:E; [|reflexivity]. exfalso.
    destruct (Hon _ _ E) as [E1|[i [_ E1]]]; [exact (Hm1 E1) | exact (Hm2 i E1)]. }
  destruct (rotate_fs_spec (wfs (s_w x)) (cname c) moved (wino wr) (wpend wr) (wnow (s_w x)) W
              (fun E => Hm1 (eq_sym E)) Hc Hfree) as [f1 [Er R]].
  cbn zeta in R. destruct R as [L1c [Hino1 [W3 [Hnew [L3c [L3t [L3o [Hlen [Inew [Iold Ioth]]]]]]]]]].
  cbn [sync_step]. rewrite Er.
  set (w1 := set_fs (s_w x) f1).
  set (x1 := {| s_flw := s_flw x; s_w := w1; s_tl := s_tl x; s_dead := s_dead x |}).
  assert (Q1 : quiet w1) by exact Q.
  rewrite (step_sync_cfg x1 OReopen (st_of c (length cl) roll wr) Es Hts Hasync).
  cbn [sync_step x1 s_flw s_w s_tl s_dead]. rewrite Es. cbn [st_of f_poisoned].
  unfold st_of. rewrite (reopen_state_quiet c false w1 _ wr (cname c) Q1).
  assert (Eopen : open_append (wfs w1) (cname c) (wnow w1) = create_file f1 (cname c) 0%N (wnow (s_w x))).
  { apply open_append_fresh. exact L1c. }
  rewrite Eopen. cbn [code_of].
  set (new := snd (create_file f1 (cname c) 0%N (wnow (s_w x)))) in *.
  set (f3 := append_ino (fst (create_file f1 (cname c) 0%N (wnow (s_w x)))) (wino wr) (wpend wr)) in *.
  set (w3 := flushed (set_fs w1 (fst (create_file f1 (cname c) 0%N (wnow (s_w x))))) wr).
  assert (F3' : wfs w3 = f3) by reflexivity.
  set (wr' := {| wino := new; wpend := []; wcap := None |}).
  eexists. split; [reflexivity|].
  pose proof (wf_bound _ W _ _ Hc) as Hold.
  assert (A3 : wacts w3 = 0) by exact Ha.
  split; [exact Ht|]. split; [exact A3|]. exists wr', roll. cbn [s_flw s_w with_inner st_of f_cfg f_poisoned].
  split; [reflexivity|]. split.
  { constructor.
    - exact Q.
    - rewrite F3'. exact W3.
    - rewrite F3'. exact L3c.
    - rewrite F3'. cbn [wr' wino]. rewrite Inew. split; reflexivity.
    - intros i Hi. rewrite F3'. destruct (Hcl i Hi) as [j [Lj [Pj Cj]]].
      exists j. rewrite L3o; [|apply rname_not_cname | intros E; exact (Hm2 i (eq_sym E))].
      split; [exact Lj|].
      assert (Hj1 : j <> new). { pose proof (wf_bound _ W _ _ Lj). rewrite Hnew. lia. }
      assert (Hj2 : j <> wino wr). { intros ->. pose proof (wf_inj _ W _ _ _ Lj Hc) as E. exact (rname_not_cname _ _ E). }
      unfold content. rewrite Ioth by assumption. split; [exact Pj | exact Cj].
    - intros n d [E|[]]. injection E as <- <-. rewrite F3'. exists (wino wr). split; [exact L3t|]. split.
      + rewrite Iold. exact Hcp.
      + unfold content at 1. rewrite Iold. cbn [with_data fdata]. exact V.
    - intros n j Hn. rewrite F3' in Hn.
      destruct (beq_spec n (cname c)) as [->|Hn1]; [left; reflexivity|].
      destruct (beq_spec n moved) as [->|Hn2]; [right; right; left; reflexivity|].
      rewrite L3o in Hn by assumption. destruct (Hon _ _ Hn) as [E|E]; [contradiction|]. right. left. exact E.
    - intros n [<-|[]]. split; assumption.
    - reflexivity. }
  split. { unfold cur_view. rewrite F3'. cbn [wr' wino wpend]. unfold content. rewrite Inew. reflexivity. }
  split. { cbn [length]. rewrite Nat.add_0_r. exact Z. }
  exact RS.
Qed.

(* reopen_outputfile() with the file in place: the same inode is continued, the buffered tail is flushed into it *)
Lemma reopen_inplace_step c crit x cl cu :
  numcfg c crit -> Rel c crit x (Some (cl, cu)) ->
  exists x2, step x OReopen = (x2, ObsRes 0 false) /\ RelX c crit [] x2 (cl, cu, 0).
Proof.
  intros Hcfg R. pose proof Hcfg as [Hrot [Hts [Hlink Hasync]]].
  rewrite (step_sync_rel c crit x _ OReopen Hcfg R).
  destruct R as [Ht [Ha [wr [roll [Es [I [V [Z RS]]]]]]]].
  pose proof (numinv_x _ _ _ _ I) as IX. pose proof I as [Q W Hc Hcp Hcl Hon Hwr Hcap].
  cbn [sync_step]. rewrite Es. cbn [st_of f_poisoned].
  unfold st_of. rewrite (reopen_state_quiet c false (s_w x) _ wr (cname c) Q).
  assert (Eopen : open_append (wfs (s_w x)) (cname c) (wnow (s_w x)) = (wfs (s_w x), wino wr)).
  { unfold open_append. rewrite Hc. reflexivity. }
  rewrite Eopen. cbn [fst snd code_of]. rewrite set_fs_id.
  set (wr' := {| wino := wino wr; wpend := []; wcap := None |}).
  destruct (numinvx_append c (s_w x) (flushed (s_w x) wr) wr wr' cl [] (wpend wr) IX (flushed_fs _ wr) (flushed_env _ wr Q)
              eq_refl eq_refl) as [I3 C3].
  eexists. split; [reflexivity|].
  split; [exact Ht|]. split; [exact Ha|].
  exists wr', roll. cbn [s_flw s_w].
  split; [reflexivity|]. split; [exact I3|].
  split. { unfold cur_view. rewrite C3. cbn [wr' wpend]. rewrite app_nil_r. exact V. }
  split; [exact Z | exact RS].
Qed.

(* before the first record there is no file and no writer: the rename finds nothing, reopen does nothing *)
Lemma reopen_initial_steps c crit x a b :
  numcfg c crit -> Rel c crit x None ->
  exists x2, run x [OExtRename a b; OReopen] = (x2, [ObsRes 0 false; ObsRes 0 false]) /\ Rel c crit x2 None.
Proof.
  intros Hcfg R. cbn [run]. rewrite (step_sync_rel c crit x _ (OExtRename a b) Hcfg R).
  cbn [sync_step]. destruct R as [Ht [Ha [Es [Q [Hn Hi]]]]].
  rewrite rename_none by (apply lookup_empty; exact Hn).
  set (x1 := {| s_flw := s_flw x; s_w := set_fs (s_w x) (wfs (s_w x)); s_tl := s_tl x; s_dead := s_dead x |}).
  assert (R1 : Rel c crit x1 None).
  { split; [exact Ht|]. split; [exact Ha|]. split; [exact Es|]. split; [exact Q|]. split; assumption. }
  rewrite (step_sync_rel c crit x1 _ OReopen Hcfg R1). cbn [sync_step x1 s_flw]. rewrite Es.
  cbn [new_flw f_poisoned reopen_state f_inner code_of]. eexists. split; [reflexivity|].
  split; [exact Ht|]. split; [exact Ha|]. split; [reflexivity|]. split; [exact Q|]. split; assumption.
Qed.

Lemma reopen_initial_step c crit x :
  numcfg c crit -> Rel c crit x None ->
  exists x2, step x OReopen = (x2, ObsRes 0 false) /\ Rel c crit x2 None.
Proof.
  intros Hcfg R. rewrite (step_sync_rel c crit x _ OReopen Hcfg R). cbn [sync_step].
  pose proof R as [Ht [Ha [Es [Q [Hn Hi]]]]]. rewrite Es.
  cbn [new_flw f_poisoned reopen_state f_inner code_of]. eexists. split; [reflexivity|].
  split; [exact Ht|]. split; [exact Ha|]. split; [reflexivity|]. split; [exact Q|]. split; assumption.
Qed.

(* ================================================================== whole histories *)
Definition wrote (ops : list op) : bool := existsb is_wr ops.

Lemma written_app ops1 ops2 : written (ops1 ++ ops2) = written ops1 ++ written ops2.
Proof.
  induction ops1 as [|o r IH]; [reflexivity|]. cbn [app]. rewrite (written_cons o (r ++ ops2)), (written_cons o r), IH, app_assoc.
  reflexivity.
Qed.

Lemma a_run_some ops : forall v obs, exists v', a_run (Some v) ops obs = Some v'.
Proof.
  induction ops as [|o r IH]; intros v obs; [exists v; reflexivity|]. destruct obs as [|ob robs]; [exists v; reflexivity|]. cbn [a_run].
  assert (E : exists v1, a_step (Some v) o (rot_of ob) = Some v1).
  { destruct v as [cl cu]. destruct o; cbn [a_step]; eauto. }
  destruct E as [v1 ->]. apply IH.
Qed.

Lemma a_run_none_wrote ops : forall obs, length obs = length ops ->
  if wrote ops then exists v, a_run None ops obs = Some v else a_run None ops obs = None.
Proof.
  induction ops as [|o r IH]; intros obs Hl; [reflexivity|]. destruct obs as [|ob robs]; [discriminate|].
  cbn [wrote existsb a_run]. fold (wrote r). destruct (is_wr o) eqn:Eo; cbn [orb].
  - assert (E : exists v1, a_step None o (rot_of ob) = Some v1) by (destruct o; try discriminate; cbn [a_step]; eauto).
    destruct E as [v1 ->]. apply a_run_some.
  - assert (E : a_step None o (rot_of ob) = None) by (destruct o; try discriminate; reflexivity).
    rewrite E. apply IH. cbn in Hl. lia.
Qed.

(* a history from a state of the original invariant, then stop *)
Lemma finish_rel c crit x a ops : numcfg c crit -> Rel c crit x a -> Forall basic_op ops ->
  let a' := a_run a ops (snd (run x ops)) in
  reads c (wfs (s_w (fst (run x (ops ++ [OStop]))))) (files_of a')
  /\ flat a' = flat a ++ written ops
  /\ (forall m, crit = CSize m -> a' = s_run m a ops).
Proof.
  intros Hcfg R Hb a'. subst a'. rewrite run_app.
  pose proof (run_rel c crit Hcfg ops x a R Hb) as R1. pose proof (run_length ops x) as L.
  assert (Hs : forall m, crit = CSize m -> a_run a ops (snd (run x ops)) = s_run m a ops).
  { intros m ->. exact (proj1 (run_size c m Hcfg ops x a R Hb)). }
  destruct (run x ops) as [x1 obs1]. cbn [fst snd] in *.
  pose proof (stop_rel c crit x1 _ Hcfg R1) as S. cbn [run]. destruct (step x1 OStop) as [x2 ob2]. cbn [fst].
  split; [apply files_of_reads; exact S|]. split; [apply a_run_flat; assumption | exact Hs].
Qed.

Lemma files_of_concat a : concat (files_of a) = flat a.
Proof. destruct a as [[cl cu]|]; cbn [files_of flat concat]; [|reflexivity]. rewrite concat_app. cbn [concat]. rewrite app_nil_r. reflexivity. Qed.

(* ---- the greedy partition with a ghost prefix ---- *)
Lemma partition_closed m items : forall cl cu, partition m cl cu items = cl ++ partition m [] cu items.
Proof.
  induction items as [|[r|] rest IH]; intros cl cu; cbn [partition app].
  - reflexivity.
  - destruct (m <? N.of_nat (length cu))%N.
    + rewrite (IH (cl ++ [cu])), (IH [cu]), <- app_assoc. reflexivity.
    + apply IH.
  - rewrite (IH (cl ++ [cu])), (IH [cu]), <- app_assoc. reflexivity.
Qed.

(* the files written under the size rule when the count starts with the ghost bytes gb: the greedy partition that starts
   with gb in the current file, with gb taken off its first file *)
Lemma sx_run_partition m ops : forall cl cu gb, Forall basic_op ops ->
  exists h tl, partition m [] (gb ++ cu) (items true ops) = (gb ++ h) :: tl
    /\ x_files (sx_run m (cl, cu, length gb) ops) = cl ++ h :: tl.
Proof.
  induction ops as [|o r IH]; intros cl cu gb Hb.
  - exists cu, []. split; reflexivity.
  - inversion Hb as [|o' r' Ho Hr]; subst.
    assert (Rot : forall b, exists h tl, partition m [gb ++ cu] b (items true r) = (gb ++ h) :: tl
                    /\ x_files (sx_run m (cl ++ [cu], b, 0) r) = cl ++ h :: tl).
    { intros b. destruct (IH (cl ++ [cu]) b [] Hr) as [h' [tl' [P F]]]. cbn [app length] in P, F.
      exists cu, (h' :: tl'). rewrite partition_closed, P. split; [reflexivity|]. rewrite <- app_assoc in F. exact F. }
    assert (Stay : forall b, exists h tl, partition m [] ((gb ++ cu) ++ b) (items true r) = (gb ++ h) :: tl
                    /\ x_files (sx_run m (cl, cu ++ b, length gb) r) = cl ++ h :: tl).
    { intros b. rewrite <- app_assoc. apply IH. exact Hr. }
    destruct o; try contradiction; cbn [sx_run x_step items partition size_of app]; rewrite ?app_length.
    + destruct (m <? N.of_nat (length gb + length cu))%N; [apply Rot | apply Stay].
    + destruct (m <? N.of_nat (length gb + length cu))%N; [apply Rot | apply Stay].
    + apply IH; exact Hr.
    + apply Rot.
    + apply IH; exact Hr.
    + apply IH; exact Hr.
Qed.

(* ---- the part of the history after the switch ---- *)
Lemma nth_error_after {A} (pre : list A) a b rest n : length pre = n -> nth_error (pre ++ a :: b :: rest) (S n) = Some b.
Proof.
  intros <-. rewrite nth_error_app2 by lia. replace (S (length pre) - length pre) with 1 by lia. reflexivity.
Qed.

(* ------------------------------------------------------------------ theorem 1: external rename, then reopen *)
Theorem reopen_numbers c crit t0 off ops1 ops2 moved :
  numcfg c crit -> Forall basic_op ops1 -> Forall basic_op ops2 -> fresh_name c moved ->
  let r := run (sys0 t0 off) (OStart c :: ops1 ++ [OExtRename (cname c) moved; OReopen] ++ ops2 ++ [OStop]) in
  let f := wfs (s_w (fst r)) in
  (* reopen_outputfile() succeeds *)
  nth_error (snd r) (S (S (length ops1))) = Some (ObsRes 0 false)
  /\ if wrote ops1 then
       exists closed1 cur1 closed2 cur2,
         (* closed1, cur1: the files r00000.., rCURRENT of the history ops1 *)
         reads c (wfs (s_w (fst (run (sys0 t0 off) (OStart c :: ops1 ++ [OStop]))))) (closed1 ++ [cur1])
         /\ concat closed1 ++ cur1 = written ops1
         (* the directory: the closed files of ops1, the files of ops2 continuing the numbering, the new current file,
            and the renamed file with everything written since the last rotation of ops1 (buffered tail included) *)
         /\ dir_holds f (numbered c 0 (closed1 ++ closed2) ++ [(cname c, cur2); (moved, cur1)])
         /\ concat closed2 ++ cur2 = written ops2
         /\ concat (closed1 ++ [cur1] ++ closed2 ++ [cur2]) = written (ops1 ++ ops2)
     else
       (* no record before the switch: no file was there to be renamed, reopen did nothing *)
       exists files, reads c f files /\ concat files = written ops2.
Proof.
  intros Hcfg Hb1 Hb2 Hm. cbv zeta. cbn [run]. destruct (step (sys0 t0 off) (OStart c)) as [x0 ob0] eqn:E0.
  pose proof (start_rel c crit t0 off) as R0. rewrite E0 in R0. cbn [fst] in R0.
  rewrite !run_app.
  pose proof (run_rel c crit Hcfg ops1 x0 None R0 Hb1) as R1. pose proof (run_length ops1 x0) as L1.
  pose proof (a_run_none_wrote ops1 (snd (run x0 ops1)) L1) as Hw.
  pose proof (a_run_flat ops1 None (snd (run x0 ops1)) Hb1 L1) as Fl1. cbn [flat app] in Fl1.
  destruct (run x0 ops1) as [x1 obs1]. cbn [fst snd] in *.
  pose proof (stop_rel c crit x1 _ Hcfg R1) as S1. cbn [run] in S1 |- *.
  destruct (wrote ops1).
  - destruct Hw as [[cl cu] Ea]. rewrite Ea in *.
    destruct (reopen_moved_step c crit x1 cl cu moved Hcfg R1 Hm) as [x2 [E2 R2]].
    rewrite (run_app [OExtRename (cname c) moved; OReopen]). rewrite E2.
    destruct (tail_relx c crit [(moved, cu)] x2 cl [] (length cu) ops2 Hcfg R2 Hb2) as [closed2 [cur2 [D [C _]]]].
    destruct (run x2 (ops2 ++ [OStop])) as [x3 obs3]. cbn [fst snd] in *.
    split; [apply nth_error_after; exact L1|].
    exists cl, cu, closed2, cur2. cbn [flat app] in Fl1, C.
    destruct (step x1 OStop) as [x1s ob1s]. cbn [fst].
    split. { exact (files_of_reads c _ (Some (cl, cu)) S1). }
    split; [exact Fl1|]. split; [exact D|]. split; [exact C|].
    rewrite written_app, !concat_app. cbn [concat]. rewrite !app_nil_r, <- Fl1, <- C, <- !app_assoc. reflexivity.
  - rewrite Hw in *.
    destruct (reopen_initial_steps c crit x1 (cname c) moved Hcfg R1) as [x2 [E2 R2]].
    rewrite (run_app [OExtRename (cname c) moved; OReopen]). rewrite E2.
    pose proof (finish_rel c crit x2 None ops2 Hcfg R2 Hb2) as [Rd [Fl _]].
    destruct (run x2 (ops2 ++ [OStop])) as [x3 obs3]. cbn [fst snd] in *.
    split; [apply nth_error_after; exact L1|].
    eexists. split; [exact Rd|]. rewrite files_of_concat. exact Fl.
Qed.
Print Assumptions reopen_numbers.

(* size criterion: the size count survives the reopen.  The files after the switch are the greedy partition of ops2 that
   starts with cur1 (the content of the renamed file) in the current file - with cur1 taken off the first file,
   because these bytes are in the renamed file *)
Theorem reopen_numbers_partition c m t0 off ops1 ops2 moved :
  numcfg c (CSize m) -> Forall basic_op ops1 -> Forall basic_op ops2 -> fresh_name c moved -> wrote ops1 = true ->
  let r := run (sys0 t0 off) (OStart c :: ops1 ++ [OExtRename (cname c) moved; OReopen] ++ ops2 ++ [OStop]) in
  exists closed1 cur1 h tl closed2 cur2,
    expected_files m None (items false ops1) = closed1 ++ [cur1]
    /\ partition m [] cur1 (items true ops2) = (cur1 ++ h) :: tl
    /\ h :: tl = closed2 ++ [cur2]
    /\ dir_holds (wfs (s_w (fst r))) (numbered c 0 (closed1 ++ closed2) ++ [(cname c, cur2); (moved, cur1)]).
Proof.
  intros Hcfg Hb1 Hb2 Hm Hw1. cbv zeta. cbn [run]. destruct (step (sys0 t0 off) (OStart c)) as [x0 ob0] eqn:E0.
  pose proof (start_rel c (CSize m) t0 off) as R0. rewrite E0 in R0. cbn [fst] in R0.
  rewrite !run_app.
  pose proof (run_rel c (CSize m) Hcfg ops1 x0 None R0 Hb1) as R1. pose proof (run_length ops1 x0) as L1.
  pose proof (a_run_none_wrote ops1 (snd (run x0 ops1)) L1) as Hw. rewrite Hw1 in Hw.
  pose proof (proj1 (run_size c m Hcfg ops1 x0 None R0 Hb1)) as Sz.
  destruct (run x0 ops1) as [x1 obs1]. cbn [fst snd] in *.
  destruct Hw as [[cl cu] Ea]. rewrite Ea in *.
  destruct (reopen_moved_step c (CSize m) x1 cl cu moved Hcfg R1 Hm) as [x2 [E2 R2]].
  rewrite (run_app [OExtRename (cname c) moved; OReopen]). rewrite E2.
  destruct (tail_relx c (CSize m) [(moved, cu)] x2 cl [] (length cu) ops2 Hcfg R2 Hb2) as [closed2 [cur2 [D [_ [_ P]]]]].
  destruct (run x2 (ops2 ++ [OStop])) as [x3 obs3]. cbn [fst snd] in *.
  destruct (sx_run_partition m ops2 cl [] cu Hb2) as [h [tl [P1 P2]]]. rewrite app_nil_r in P1.
  exists cl, cu, h, tl, closed2, cur2.
  split. { rewrite <- s_run_none by assumption. rewrite <- Sz. reflexivity. }
  split; [exact P1|]. split; [|exact D].
  pose proof (eq_trans (P m eq_refl) P2) as P3. apply app_inv_head in P3. symmetry. exact P3.
Qed.
Print Assumptions reopen_numbers_partition.

Lemma s_run_app m l1 : forall a l2, s_run m a (l1 ++ l2) = s_run m (s_run m a l1) l2.
Proof. induction l1 as [|o r IH]; intros a l2; [reflexivity|]. cbn [app s_run]. apply IH. Qed.

(* with the size rule and no ghost bytes the generalised run is the greedy partition *)
Lemma sx_run_files m ops cl cu : Forall basic_op ops ->
  x_files (sx_run m (cl, cu, 0) ops) = files_of (s_run m (Some (cl, cu)) ops).
Proof.
  intros Hb. destruct (sx_run_partition m ops cl cu [] Hb) as [h [tl [P F]]]. cbn [app length] in P, F.
  rewrite s_run_partition, partition_closed, P by assumption. exact F.
Qed.

(* right after reopen_outputfile() has returned the renamed file holds every record written since the last rotation on
   disk - the buffered tail included -, and the new current file is empty *)
Theorem reopen_numbers_at_once c crit t0 off ops1 moved :
  numcfg c crit -> Forall basic_op ops1 -> fresh_name c moved -> wrote ops1 = true ->
  let f := wfs (s_w (fst (run (sys0 t0 off) (OStart c :: ops1 ++ [OExtRename (cname c) moved; OReopen])))) in
  exists closed1 cur1,
    concat closed1 ++ cur1 = written ops1
    /\ dir_holds f (numbered c 0 closed1 ++ [(cname c, []); (moved, cur1)]).
Proof.
  intros Hcfg Hb1 Hm Hw1. cbv zeta. cbn [run]. destruct (step (sys0 t0 off) (OStart c)) as [x0 ob0] eqn:E0.
  pose proof (start_rel c crit t0 off) as R0. rewrite E0 in R0. cbn [fst] in R0.
  rewrite run_app.
  pose proof (run_rel c crit Hcfg ops1 x0 None R0 Hb1) as R1. pose proof (run_length ops1 x0) as L1.
  pose proof (a_run_none_wrote ops1 (snd (run x0 ops1)) L1) as Hw. rewrite Hw1 in Hw.
  pose proof (a_run_flat ops1 None (snd (run x0 ops1)) Hb1 L1) as Fl1. cbn [flat app] in Fl1.
  destruct (run x0 ops1) as [x1 obs1]. cbn [fst snd] in *.
  destruct Hw as [[cl cu] Ea]. rewrite Ea in *. cbn [flat] in Fl1.
  destruct (reopen_moved_step c crit x1 cl cu moved Hcfg R1 Hm) as [x2 [E2 R2]]. rewrite E2. cbn [fst].
  exists cl, cu. split; [exact Fl1|].
  destruct R2 as [_ [_ [wr [roll [_ [I [V _]]]]]]]. destruct I as [Q W Hc Hcp Hcl Hex Hon Hfr Hwr].
  assert (Hp : wpend wr = []).
  { unfold cur_view in V. destruct (content (wfs (s_w x2)) (wino wr)); [exact V | discriminate]. }
  split.
  - intros n d Hin. apply in_app_or in Hin. destruct Hin as [Hin|[Hin|Hin]].
    + apply numbered_in in Hin. destruct Hin as [i [Hi [-> ->]]]. cbn [Nat.add]. exact (Hcl i Hi).
    + injection Hin as <- <-. exists (wino wr). split; [exact Hc|]. split; [exact Hcp|].
      unfold cur_view in V. rewrite Hp, app_nil_r in V. exact V.
    + exact (Hex n d Hin).
  - intros n j Hn. rewrite map_app. cbn [List.map fst]. apply in_or_app.
    destruct (Hon n j Hn) as [->|[[i [Hi ->]]|Hin]].
    + right. left. reflexivity.
    + left. apply numbered_names. exists i. split; [exact Hi | reflexivity].
    + right. right. exact Hin.
Qed.
Print Assumptions reopen_numbers_at_once.

(* ------------------------------------------------------------------ theorem 2: reopen with the file in place *)
(* nothing is lost, nothing is truncated: the closed files of ops1 stay, the current file of ops1 is continued (cur1 is a
   prefix of the file that follows the closed files of ops1), the family holds exactly the stream *)
Theorem reopen_numbers_in_place c crit t0 off ops1 ops2 :
  numcfg c crit -> Forall basic_op ops1 -> Forall basic_op ops2 ->
  let r := run (sys0 t0 off) (OStart c :: ops1 ++ [OReopen] ++ ops2 ++ [OStop]) in
  let f := wfs (s_w (fst r)) in
  nth_error (snd r) (S (length ops1)) = Some (ObsRes 0 false)
  /\ exists files1 files,
       reads c (wfs (s_w (fst (run (sys0 t0 off) (OStart c :: ops1 ++ [OStop]))))) files1
       /\ concat files1 = written ops1
       /\ reads c f files /\ concat files = written (ops1 ++ ops2)
       /\ (forall closed1 cur1, files1 = closed1 ++ [cur1] -> exists t rest, files = closed1 ++ (cur1 ++ t) :: rest)
       (* size criterion: exactly the files of the history without the reopen (numbers_partition) *)
       /\ (forall m, crit = CSize m -> files = expected_files m None (items false (ops1 ++ ops2))).
Proof.
  intros Hcfg Hb1 Hb2. cbv zeta. cbn [run]. destruct (step (sys0 t0 off) (OStart c)) as [x0 ob0] eqn:E0.
  pose proof (start_rel c crit t0 off) as R0. rewrite E0 in R0. cbn [fst] in R0.
  rewrite !run_app.
  pose proof (run_rel c crit Hcfg ops1 x0 None R0 Hb1) as R1. pose proof (run_length ops1 x0) as L1.
  pose proof (a_run_flat ops1 None (snd (run x0 ops1)) Hb1 L1) as Fl1. cbn [flat app] in Fl1.
  destruct (run x0 ops1) as [x1 obs1] eqn:E1. cbn [fst snd] in *.
  pose proof (stop_rel c crit x1 _ Hcfg R1) as S1. cbn [run] in S1 |- *.
  assert (Hex : forall m, crit = CSize m -> forall a, a_run None ops1 obs1 = a -> forall fl,
            fl = files_of (s_run m a ops2) -> fl = expected_files m None (items false (ops1 ++ ops2))).
  { intros m Hm a Ea fl ->. subst crit. rewrite <- s_run_none by (apply Forall_app; split; assumption).
    rewrite s_run_app. pose proof (proj1 (run_size c m Hcfg ops1 x0 None R0 Hb1)) as Sz.
    rewrite E1 in Sz. cbn [snd] in Sz. rewrite <- Sz, Ea. reflexivity. }
  assert (Hnth : forall (a : obs) rest, nth_error (obs1 ++ a :: rest) (length ops1) = Some a).
  { intros a rest. rewrite nth_error_app2 by lia. rewrite L1, Nat.sub_diag. reflexivity. }
  destruct (a_run None ops1 obs1) as [[cl cu]|] eqn:Ea.
  - destruct (reopen_inplace_step c crit x1 cl cu Hcfg R1) as [x2 [E2 R2]].
    assert (E2' : run x1 [OReopen] = (x2, [ObsRes 0 false])) by (cbn [run]; rewrite E2; reflexivity).
    rewrite (run_app [OReopen]), E2'.
    destruct (tail_relx c crit [] x2 cl cu 0 ops2 Hcfg R2 Hb2) as [closed2 [cur2 [D [C [[t Ht] P]]]]].
    destruct (run x2 (ops2 ++ [OStop])) as [x3 obs3]. cbn [fst snd] in *.
    split; [apply Hnth|].
    destruct (step x1 OStop) as [x1s ob1s]. cbn [fst].
    exists (cl ++ [cu]), (cl ++ closed2 ++ [cur2]).
    split. { exact (files_of_reads c _ (Some (cl, cu)) S1). }
    split. { rewrite concat_app. cbn [concat]. rewrite app_nil_r. exact Fl1. }
    split.
    { destruct D as [D1 D2]. unfold reads. destruct (cl ++ closed2 ++ [cur2]) eqn:Ef; [destruct cl, closed2; discriminate|].
      rewrite <- Ef. exists (cl ++ closed2), cur2. split; [rewrite app_assoc; reflexivity|].
      split; [|split].
      - intros i Hi. apply D1. apply in_or_app. left. apply numbered_in. exists i. split; [exact Hi|]. split; reflexivity.
      - apply D1. apply in_or_app. right. left. reflexivity.
      - intros n j Hn. specialize (D2 n j Hn). rewrite map_app in D2. apply in_app_or in D2. destruct D2 as [D2|[D2|[]]].
        + right. apply numbered_names in D2. exact D2.
        + left. symmetry. exact D2. }
    split.
    { rewrite written_app, !concat_app. cbn [concat]. rewrite app_nil_r, <- Fl1. cbn [flat]. rewrite <- app_assoc, <- C. reflexivity. }
    split.
    { intros closed1 cur1 E. apply app_inj_tail in E. destruct E as [<- <-].
      rewrite Ht. exists t, (List.tl (closed2 ++ [cur2])). reflexivity. }
    intros m Hm. apply (Hex m Hm _ eq_refl). rewrite (P m Hm). apply sx_run_files. exact Hb2.
  - destruct (reopen_initial_step c crit x1 Hcfg R1) as [x2 [E2 R2]].
    assert (E2' : run x1 [OReopen] = (x2, [ObsRes 0 false])) by (cbn [run]; rewrite E2; reflexivity).
    rewrite (run_app [OReopen]), E2'.
    pose proof (finish_rel c crit x2 None ops2 Hcfg R2 Hb2) as [Rd [Fl Sz2]].
    destruct (run x2 (ops2 ++ [OStop])) as [x3 obs3]. cbn [fst snd] in *.
    split; [apply Hnth|].
    destruct (step x1 OStop) as [x1s ob1s]. cbn [fst].
    exists [], (files_of (a_run None ops2 (snd (run x2 ops2)))).
    split; [exact S1|]. split; [exact Fl1|]. split; [exact Rd|].
    split. { rewrite files_of_concat, Fl, written_app, <- Fl1. reflexivity. }
    split; [intros closed1 cur1 E; destruct closed1; discriminate|].
    intros m Hm. apply (Hex m Hm _ eq_refl). rewrite (Sz2 m Hm). reflexivity.
Qed.
Print Assumptions reopen_numbers_in_place.

(* ================================================================== reset(builder) to another Numbers family *)
(* the names of the family of c are not members of the family of c2 (the family test of the model, num_member) *)
Definition foreign_family (c c2 : config) : Prop :=
  num_member c2 (cname c) = false /\ forall i, num_member c2 (rname c i) = false.

(* the family files of a directory, as (name, content): r00000.. and rCURRENT *)
Definition fam (c : config) (files : list bytes) : list (bytes * bytes) :=
  match files with [] => [] | _ => numbered c 0 (removelast files) ++ [(cname c, last files [])] end.

Lemma fam_snoc c cl cu : fam c (cl ++ [cu]) = numbered c 0 cl ++ [(cname c, cu)].
Proof.
  unfold fam. destruct (cl ++ [cu]) eqn:E; [destruct cl; discriminate|]. rewrite <- E, removelast_last, last_last. reflexivity.
Qed.

Lemma fam_names c files n : In n (List.map fst (fam c files)) -> n = cname c \/ exists i, n = rname c i.
Proof.
  unfold fam. destruct files as [|f0 fr]; [intros []|]. rewrite map_app. intros H. apply in_app_or in H. destruct H as [H|[H|[]]].
  - apply numbered_names in H. destruct H as [i [_ ->]]. right. eauto.
  - left. symmetry. exact H.
Qed.

Lemma reads_dir_holds c f files : reads c f files -> dir_holds f (fam c files).
Proof.
  intros R. destruct files as [|f0 fr].
  - cbn in R |- *. split; [intros n d []|]. intros n j Hn. rewrite (lookup_empty f n R) in Hn. discriminate.
  - cbn [reads] in R. destruct R as [cl [cu [-> [Hcl [[j [Lj [Pj Cj]]] Hon]]]]]. rewrite fam_snoc. split.
    + intros n d Hin. apply in_app_or in Hin. destruct Hin as [Hin|[Hin|[]]].
      * apply numbered_in in Hin. destruct Hin as [i [Hi [-> ->]]]. exact (Hcl i Hi).
      * injection Hin as <- <-. eauto.
    + intros n j' Hn. rewrite map_app. apply in_or_app. destruct (Hon n j' Hn) as [->|[i [Hi ->]]].
      * right. left. reflexivity.
      * left. apply numbered_names. exists i. split; [exact Hi | reflexivity].
Qed.

(* a directory put on top of a stock of other files: both sets of files are there *)
Lemma dir_holds_embed fn fi f' l0 l' :
  fs_wf (stock fn fi) -> dir_holds (stock fn fi) l0 -> dir_holds f' l' ->
  (forall n, In n (List.map fst l0) -> ~ In n (List.map fst l')) ->
  dir_holds (embed fn fi f') (l0 ++ l').
Proof.
  intros W [A0 B0] [A1 B1] Hdis. split.
  - intros n d Hin. apply in_app_or in Hin. destruct Hin as [Hin|Hin].
    + destruct (A0 n d Hin) as [j [Lj [Pj Cj]]].
      assert (Ln : lookup f' n = None).
      { destruct (lookup f' n) as [i|] eqn:E; [|reflexivity]. exfalso. apply (Hdis n); [|exact (B1 n i E)].
        apply (in_map fst) in Hin. exact Hin. }
      pose proof (wf_bound _ W _ _ Lj) as Hj. exists j. rewrite lookup_embed, Ln. split; [exact Lj|].
      unfold content. rewrite inode_embed_stock by exact Hj. split; [exact Pj | exact Cj].
    + destruct (A1 n d Hin) as [i [Li [Pi Ci]]]. exists (fk fi + i). rewrite lookup_embed, Li. split; [reflexivity|].
      rewrite content_embed, inode_embed. split; [exact Pi | exact Ci].
  - intros n j Hn. rewrite lookup_embed in Hn. rewrite map_app. apply in_or_app.
    destruct (lookup f' n) as [i|] eqn:E.
    + right. exact (B1 n i E).
    + left. exact (B0 n j Hn).
Qed.

Lemma stock_eta f : stock (names f) (inodes f) = f.
Proof. destruct f; reflexivity. Qed.

(* reset: the old writer is dropped - its buffered tail reaches the old current file -, a new writer is installed *)
Lemma reset_step c crit c2 crit2 x a :
  numcfg c crit -> numcfg c2 crit2 -> c_cap c2 = c_cap c -> Rel c crit x a ->
  exists x2, step x (OReset c2) = (x2, ObsRes 0 false)
    /\ s_flw x2 = Some (new_flw c2) /\ s_tl x2 = [] /\ wacts (s_w x2) = 0 /\ quiet (s_w x2)
    /\ fs_wf (wfs (s_w x2)) /\ reads c (wfs (s_w x2)) (files_of a).
Proof.
  intros Hcfg Hcfg2 Hcap R. rewrite (step_sync_rel c crit x _ (OReset c2) Hcfg R).
  assert (Hmode : c_async c2 = c_async c).
  { destruct Hcfg as [_ [_ [_ ->]]]. destruct Hcfg2 as [_ [_ [_ ->]]]. reflexivity. }
  destruct R as [Ht [Ha R]]. destruct a as [[cl cu]|].
  - destruct R as [wr [roll [Es [I [V [Z RS]]]]]]. pose proof (ni_quiet _ _ _ _ I) as Q0.
    rewrite (reset_quiet x _ c2 Es eq_refl Q0 Hcap Hmode). cbn [st_of f_inner].
    destruct (numinv_append c (s_w x) (flushed (s_w x) wr) wr (emptied wr) cl (wpend wr) I (flushed_fs _ wr) (flushed_env _ wr Q0)
                eq_refl eq_refl (wr_ok_nil _ _)) as [I1 C1].
    eexists. split; [reflexivity|]. cbn [s_flw s_tl s_w].
    split; [reflexivity|]. split; [exact Ht|]. split; [exact Ha|]. split; [exact Q0|].
    destruct I1 as [Q W Hc Hcp Hcl Hon Hwr Hcap']. split; [exact W|].
    apply (files_of_reads c _ (Some (cl, cu))). split; [exact Hcl|]. split; [|exact Hon].
    exists (wino wr). split; [exact Hc|]. split; [exact Hcp|]. cbn [emptied wino] in C1. rewrite C1. exact V.
  - destruct R as [Es [Q [Hn Hi]]].
    rewrite (reset_quiet x _ c2 Es eq_refl Q Hcap Hmode). cbn [new_flw f_inner].
    eexists. split; [reflexivity|]. cbn [s_flw s_tl s_w].
    split; [reflexivity|]. split; [exact Ht|]. split; [exact Ha|]. split; [exact Q|].
    split; [|exact Hn].
    split; intros n; intros; rewrite (lookup_empty _ n Hn) in *; discriminate.
Qed.

(* the history of the new writer in a directory that holds the old family: the embedding of its history in an empty one *)
Lemma run_stop_embed fn fi c2 crit2 x ops :
  numcfg c2 crit2 -> (forall n, In n (fnames fn) -> num_member c2 n = false) -> Rel c2 crit2 x None -> Forall basic_op ops ->
  fst (run (embedx fn fi x) (ops ++ [OStop])) = embedx fn fi (fst (run x (ops ++ [OStop]))).
Proof.
  intros Hcfg Hfor R Hb. pose proof Hcfg as [Hrot [Hts [Hlink Hasync]]].
  assert (F : forall i, fam_sys fn c2 KNever (fst (run x (firstn i ops)))).
  { intros i. eapply rel_fam; [exact Hfor|]. apply (run_rel c2 crit2 Hcfg (firstn i ops) x None R). apply Forall_firstn'. exact Hb. }
  rewrite !run_app.
  pose proof (run_embed_gen fn fi c2 crit2 KNever Hrot Hts Hlink Hasync (or_introl eq_refl) Hfor ops x F Hb) as [E1 _].
  pose proof (F (length ops)) as [G1 _]. rewrite firstn_all in G1.
  destruct (run (embedx fn fi x) ops) as [xf1 obsf1]. destruct (run x ops) as [x1 obs1]. cbn [fst snd] in *. subst xf1.
  cbn [run]. pose proof (step_embed fn fi c2 crit2 KNever Hrot Hts Hlink Hasync (or_introl eq_refl) Hfor x1 OStop G1 Logic.I) as ES.
  destruct (step (embedx fn fi x1) OStop) as [xf2 obf2]. destruct (step x1 OStop) as [x2 ob2]. cbn [fst snd] in *.
  injection ES as -> _. reflexivity.
Qed.

(* ------------------------------------------------------------------ theorem 3: reset to a foreign family *)
Theorem reset_numbers c crit c2 crit2 t0 off ops1 ops2 :
  numcfg c crit -> numcfg c2 crit2 -> c_cap c2 = c_cap c -> foreign_family c c2 ->
  Forall basic_op ops1 -> Forall basic_op ops2 ->
  let r := run (sys0 t0 off) (OStart c :: ops1 ++ [OReset c2] ++ ops2 ++ [OStop]) in
  (* the reset is accepted *)
  nth_error (snd r) (S (length ops1)) = Some (ObsRes 0 false)
  /\ exists files1 files2,
       (* files1: the family of c as the history ops1 alone leaves it (the buffered tail has reached its current file) *)
       reads c (wfs (s_w (fst (run (sys0 t0 off) (OStart c :: ops1 ++ [OStop]))))) files1
       /\ concat files1 = written ops1
       (* files2: the family of c2, as numbers_stream / numbers_partition describe it for a fresh start *)
       /\ concat files2 = written ops2
       /\ (forall m, crit = CSize m -> files1 = expected_files m None (items false ops1))
       /\ (forall m2, crit2 = CSize m2 -> files2 = expected_files m2 None (items false ops2))
       (* the directory: both families, nothing else *)
       /\ dir_holds (wfs (s_w (fst r))) (fam c files1 ++ fam c2 files2).
Proof.
  intros Hcfg Hcfg2 Hcap [Hf1 Hf2] Hb1 Hb2. cbv zeta. cbn [run]. destruct (step (sys0 t0 off) (OStart c)) as [x0 ob0] eqn:E0.
  pose proof (start_rel c crit t0 off) as R0. rewrite E0 in R0. cbn [fst] in R0.
  rewrite !run_app.
  pose proof (run_rel c crit Hcfg ops1 x0 None R0 Hb1) as R1. pose proof (run_length ops1 x0) as L1.
  pose proof (a_run_flat ops1 None (snd (run x0 ops1)) Hb1 L1) as Fl1. cbn [flat app] in Fl1.
  assert (Sz : forall m, crit = CSize m -> a_run None ops1 (snd (run x0 ops1)) = s_run m None ops1).
  { intros m ->. exact (proj1 (run_size c m Hcfg ops1 x0 None R0 Hb1)). }
  destruct (run x0 ops1) as [x1 obs1]. cbn [fst snd] in *.
  pose proof (stop_rel c crit x1 _ Hcfg R1) as S1. cbn [run] in S1 |- *.
  set (a1 := a_run None ops1 obs1) in *.
  destruct (reset_step c crit c2 crit2 x1 a1 Hcfg Hcfg2 Hcap R1) as [x2 [E2 [Es2 [Ht2 [Ha2 [Q2 [W2 Rd2]]]]]]].
  assert (E2' : run x1 [OReset c2] = (x2, [ObsRes 0 false])) by (cbn [run]; rewrite E2; reflexivity).
  rewrite (run_app [OReset c2]), E2'.
  (* the system after the reset is the embedding of a fresh one *)
  set (fn := names (wfs (s_w x2))). set (fi := inodes (wfs (s_w x2))).
  set (x2' := {| s_flw := Some (new_flw c2); s_w := set_fs (s_w x2) empty_fs; s_tl := s_tl x2; s_dead := s_dead x2 |}).
  assert (Eemb : x2 = embedx fn fi x2').
  { unfold embedx, x2'. cbn [s_flw s_w s_tl s_dead]. unfold embedw. cbn [set_fs wfs wnow woff wfaults wkill werrs wlink wacts].
    rewrite stock_embed. unfold fn, fi. rewrite stock_eta. destruct x2 as [fl w tl dd]. cbn [s_flw s_w s_tl s_dead] in *.
    rewrite Es2. destruct w. reflexivity. }
  assert (R2 : Rel c2 crit2 x2' None).
  { split; [exact Ht2|]. split; [exact Ha2|]. split; [reflexivity|]. split; [exact Q2|]. split; reflexivity. }
  pose proof (reads_dir_holds c _ _ Rd2) as D0.
  assert (Hfor : forall n, In n (fnames fn) -> num_member c2 n = false).
  { intros n Hn. change (fnames fn) with (dir_names (wfs (s_w x2))) in Hn. apply dir_names_lookup in Hn. destruct Hn as [j Hj].
    apply (proj2 D0) in Hj. apply fam_names in Hj. destruct Hj as [->|[i ->]]; [exact Hf1 | apply Hf2]. }
  pose proof (run_stop_embed fn fi c2 crit2 x2' ops2 Hcfg2 Hfor R2 Hb2) as Eend. rewrite <- Eemb in Eend.
  pose proof (finish_rel c2 crit2 x2' None ops2 Hcfg2 R2 Hb2) as [Rd [Fl Sz2]].
  destruct (run x2 (ops2 ++ [OStop])) as [x3 obs3]. cbn [fst snd] in *.
  assert (Hnth : forall (a : obs) rest, nth_error (obs1 ++ a :: rest) (length ops1) = Some a).
  { intros a rest. rewrite nth_error_app2 by lia. rewrite L1, Nat.sub_diag. reflexivity. }
  split; [apply Hnth|].
  destruct (step x1 OStop) as [x1s ob1s]. cbn [fst].
  exists (files_of a1), (files_of (a_run None ops2 (snd (run x2' ops2)))).
  split; [apply files_of_reads; exact S1|]. split; [rewrite files_of_concat; exact Fl1|].
  split; [rewrite files_of_concat; exact Fl|].
  split; [intros m Hm; rewrite (Sz m Hm); apply s_run_none; exact Hb1|].
  split; [intros m Hm; rewrite (Sz2 m Hm); apply s_run_none; exact Hb2|].
  rewrite Eend. cbn [embedx s_w]. unfold embedw. cbn [set_fs wfs].
  apply dir_holds_embed.
  - unfold fn, fi. rewrite stock_eta. exact W2.
  - unfold fn, fi. rewrite stock_eta. exact D0.
  - apply reads_dir_holds. exact Rd.
  - intros n Hn Hn'. apply fam_names in Hn. apply fam_names in Hn'.
    assert (M2 : num_member c2 n = true) by (destruct Hn' as [->|[i ->]]; [apply member_cname | apply member_rname]).
    destruct Hn as [->|[i ->]]; [rewrite Hf1 in M2 | rewrite Hf2 in M2]; discriminate.
Qed.
Print Assumptions reset_numbers.

(* a simple sufficient condition: the fixed name parts (basename [_discriminant]) differ, neither is a prefix of the other *)
Lemma not_prefix_app : forall a b t, is_prefix a b = false -> is_prefix b a = false -> is_prefix a (b ++ t) = false.
Proof.
  induction a as [|x a IH]; intros b t H1 H2; [discriminate|]. destruct b as [|y b]; [discriminate|].
  cbn [is_prefix app] in *. destruct (x =? y)%N eqn:E; [|reflexivity]. cbn [andb] in *.
  apply N.eqb_eq in E. subst y. rewrite N.eqb_refl in H2. cbn [andb] in H2. apply IH; assumption.
Qed.

Lemma foreign_family_prefix c c2 :
  is_prefix (fixed0 c) (fixed0 c2) = false -> is_prefix (fixed0 c2) (fixed0 c) = false -> foreign_family c c2.
Proof.
  intros H1 H2.
  assert (U : forall z, is_prefix (fixed0 c2) (under (fixed0 c) ++ z) = false).
  { intros z. unfold under. destruct (fixed0 c) as [|f0 fr] eqn:E; [discriminate|]. rewrite <- app_assoc. apply not_prefix_app; assumption. }
  split.
  - apply foreign_no_prefix. rewrite cname_shape. apply U.
  - intros i. apply foreign_no_prefix. rewrite rname_shape. apply U.
Qed.

Corollary reset_numbers_prefix c crit c2 crit2 t0 off ops1 ops2 :
  numcfg c crit -> numcfg c2 crit2 -> c_cap c2 = c_cap c ->
  is_prefix (fixed0 c) (fixed0 c2) = false -> is_prefix (fixed0 c2) (fixed0 c) = false ->
  Forall basic_op ops1 -> Forall basic_op ops2 ->
  let r := run (sys0 t0 off) (OStart c :: ops1 ++ [OReset c2] ++ ops2 ++ [OStop]) in
  exists files1 files2,
    concat files1 = written ops1 /\ concat files2 = written ops2
    /\ dir_holds (wfs (s_w (fst r))) (fam c files1 ++ fam c2 files2).
Proof.
  intros Hcfg Hcfg2 Hcap H1 H2 Hb1 Hb2.
  destruct (reset_numbers c crit c2 crit2 t0 off ops1 ops2 Hcfg Hcfg2 Hcap (foreign_family_prefix c c2 H1 H2) Hb1 Hb2)
    as [_ [files1 [files2 [_ [C1 [C2 [_ [_ D]]]]]]]].
  exists files1, files2. auto.
Qed.
Print Assumptions reset_numbers_prefix.

(* ================================================================== examples (non-vacuity) and findings *)
Require FL.Flw.ReopenFacts.
Import String.StringSyntax.
Open Scope string_scope.

Definition ex_cfg (base : String.string) (cap : option nat) (app : bool) : config :=
  {| c_spec := {| fbase := bs base; fdisc := None; fts := false; fsfx := Some (bs "log") |};
     c_append := app; c_cap := cap; c_rot := Some (CSize 3, NNumbers, KNever); c_utc := false;
     c_symlink := false; c_bg := false; c_async := false; c_start := None |}.
(* the directory after a history from the empty directory: (name, content) in name order *)
Definition ex_dir (ops : list op) : list (bytes * bytes) := ReopenFacts.dir_list (ReopenFacts.end_of ops).

Definition ex_a := ex_cfg "a" (Some 8) false.          (* a_r00000.log .. a_rCURRENT.log, limit 3 bytes, BufWriter of 8 bytes *)
Definition ex_b := ex_cfg "b" (Some 8) true.           (* another family, the same write mode, append *)
Definition ex_moved := bs "a.old".
(* "abcd" is over the limit: closed by the next record; "efgh" is over the limit, too, and still in the buffer *)
Definition ex_ops1 : list op := [OWrite (bs "abcd"); OWrite (bs "ef"); OFlush; OPlain (bs "gh")].
Definition ex_ops2 : list op := [OWrite (bs "ij"); OWrite (bs "kl"); OTick 5; OWrite (bs "mnop"); OSnap; OWrite (bs "q")].

Lemma ex_fresh_old : fresh_name ex_a ex_moved.
Proof.
  split; [vm_compute; discriminate|]. intros i E. rewrite rname_shape in E.
  apply (f_equal (fun s => nth 1 s 0%N)) in E. vm_compute in E. discriminate.
Qed.

Example ex_hyps :
  numcfg ex_a (CSize 3) /\ numcfg ex_b (CSize 3) /\ Forall basic_op ex_ops1 /\ Forall basic_op ex_ops2
  /\ fresh_name ex_a ex_moved /\ wrote ex_ops1 = true /\ c_cap ex_b = c_cap ex_a
  /\ is_prefix (fixed0 ex_a) (fixed0 ex_b) = false /\ is_prefix (fixed0 ex_b) (fixed0 ex_a) = false.
Proof.
  split; [repeat split|]. split; [repeat split|]. split; [repeat constructor|]. split; [repeat constructor|].
  split; [exact ex_fresh_old|]. repeat split.
Qed.

(* ---- theorem 1 on a history ---- *)
(* at the rename "efgh" is partly on disk ("ef" was flushed), partly in the buffer ("gh"); reopen succeeds *)
Example ex_reopen_computed :
  ex_dir (OStart ex_a :: ex_ops1 ++ [OExtRename (cname ex_a) ex_moved])
  = [(bs "a.old", bs "ef"); (bs "a_r00000.log", bs "abcd")]
  /\ ex_dir (OStart ex_a :: ex_ops1 ++ [OExtRename (cname ex_a) ex_moved; OReopen])
  = [(bs "a.old", bs "efgh"); (bs "a_r00000.log", bs "abcd"); (bs "a_rCURRENT.log", [])]
  /\ ex_dir (OStart ex_a :: ex_ops1 ++ [OExtRename (cname ex_a) ex_moved; OReopen] ++ ex_ops2 ++ [OStop])
  = [(bs "a.old", bs "efgh"); (bs "a_r00000.log", bs "abcd"); (bs "a_r00001.log", []); (bs "a_r00002.log", bs "ijkl");
     (bs "a_r00003.log", bs "mnop"); (bs "a_rCURRENT.log", bs "q")]
  /\ nth_error (snd (run (sys0 0 0) (OStart ex_a :: ex_ops1 ++ [OExtRename (cname ex_a) ex_moved; OReopen] ++ ex_ops2 ++ [OStop])))
               (S (S (length ex_ops1))) = Some (ObsRes 0 false)
  /\ written ex_ops1 = bs "abcdefgh" /\ written ex_ops2 = bs "ijklmnopq".
Proof. repeat (split; [vm_compute; reflexivity|]); vm_compute; reflexivity. Qed.

(* ... what the theorems say about it *)
Example ex_reopen_thm :
  exists closed1 cur1 closed2 cur2,
    concat closed1 ++ cur1 = written ex_ops1 /\ concat closed2 ++ cur2 = written ex_ops2
    /\ dir_holds (wfs (s_w (fst (run (sys0 0 0) (OStart ex_a :: ex_ops1 ++ [OExtRename (cname ex_a) ex_moved; OReopen] ++ ex_ops2 ++ [OStop])))))
         (numbered ex_a 0 (closed1 ++ closed2) ++ [(cname ex_a, cur2); (ex_moved, cur1)]).
Proof.
  destruct ex_hyps as (Hc & _ & H1 & H2 & Hm & Hw & _).
  pose proof (reopen_numbers ex_a (CSize 3) 0 0 ex_ops1 ex_ops2 ex_moved Hc H1 H2 Hm) as [_ T]. cbv zeta in T.
  rewrite Hw in T. destruct T as (closed1 & cur1 & closed2 & cur2 & _ & C1 & D & C2 & _).
  exists closed1, cur1, closed2, cur2. auto.
Qed.

(* the witnesses of reopen_numbers_partition for this history: the renamed file holds "efgh", the greedy partition of
   ops2 that starts with "efgh" in the current file is  efgh | ijkl | mnop | q ; with "efgh" taken off:  "" | ijkl | mnop | q *)
Example ex_reopen_partition :
  expected_files 3 None (items false ex_ops1) = [bs "abcd"] ++ [bs "efgh"]
  /\ partition 3 [] (bs "efgh") (items true ex_ops2) = (bs "efgh" ++ []) :: [bs "ijkl"; bs "mnop"; bs "q"]
  /\ numbered ex_a 0 ([bs "abcd"] ++ [[]; bs "ijkl"; bs "mnop"]) ++ [(cname ex_a, bs "q"); (ex_moved, bs "efgh")]
     = [(bs "a_r00000.log", bs "abcd"); (bs "a_r00001.log", []); (bs "a_r00002.log", bs "ijkl"); (bs "a_r00003.log", bs "mnop");
        (bs "a_rCURRENT.log", bs "q"); (bs "a.old", bs "efgh")].
Proof. repeat (split; [vm_compute; reflexivity|]); vm_compute; reflexivity. Qed.

(* FINDING 1: the size count is not reset by reopen_outputfile().  The file that was moved away was over the limit, so
   the first record after the reopen rotates the new, still EMPTY rCURRENT: an empty a_r00001.log appears.
   The files of ops2 are therefore NOT the greedy partition started afresh (expected_files 3 None ...). *)
Example ex_reopen_empty_file :
  ReopenFacts.assoc (bs "a_r00001.log")
    (ex_dir (OStart ex_a :: ex_ops1 ++ [OExtRename (cname ex_a) ex_moved; OReopen] ++ ex_ops2 ++ [OStop])) = Some []
  /\ expected_files 3 None (items false ex_ops2) = [bs "ijkl"; bs "mnop"; bs "q"].
Proof. repeat (split; [vm_compute; reflexivity|]); vm_compute; reflexivity. Qed.

(* the same effect without an empty file: "ef" (2 bytes) is moved away, the count goes on at 2: "gh" alone fills the next
   file, whereas a fresh writer would put "ghij" into one file *)
Definition ex_ops1' : list op := [OWrite (bs "abcd"); OWrite (bs "ef")].
Definition ex_ops2' : list op := [OWrite (bs "gh"); OWrite (bs "ij"); OWrite (bs "k")].
Example ex_reopen_not_afresh :
  ex_dir (OStart ex_a :: ex_ops1' ++ [OExtRename (cname ex_a) ex_moved; OReopen] ++ ex_ops2' ++ [OStop])
  = [(bs "a.old", bs "ef"); (bs "a_r00000.log", bs "abcd"); (bs "a_r00001.log", bs "gh"); (bs "a_rCURRENT.log", bs "ijk")]
  /\ ex_dir (OStart ex_a :: ex_ops2' ++ [OStop]) = [(bs "a_r00000.log", bs "ghij"); (bs "a_rCURRENT.log", bs "k")]
  /\ partition 3 [] (bs "ef") (items true ex_ops2') = [bs "ef" ++ bs "gh"; bs "ijk"].
Proof. repeat (split; [vm_compute; reflexivity|]); vm_compute; reflexivity. Qed.

(* FINDING 2: the rotation state after the reopen: next index 1, size count 4 (the bytes of a.old), an unbuffered writer *)
Example ex_reopen_state :
  match s_flw (ReopenFacts.end_of (OStart ex_a :: ex_ops1 ++ [OExtRename (cname ex_a) ex_moved; OReopen])) with
  | Some s => match f_inner s with
              | Active (Some rs) wr _ => (rs_naming rs, rs_roll rs, wcap wr, wpend wr) = (NSNumR 1, RSize 3 4, None, [])
              | _ => False end
  | None => False end.
Proof. vm_compute. reflexivity. Qed.

(* FINDING 3: the hypothesis fresh_name is needed, and its failure loses records.  Somebody "rotates by hand": renames
   a_rCURRENT.log to the next numbered name a_r00001.log, then reopen_outputfile().  The writer still has 1 as its next
   index; its next rotation renames the new (empty) rCURRENT to a_r00001.log, and rename replaces the target: the records
   "efgh" are gone, no error is reported, every call returned Ok. *)
Example ex_reopen_family_name_loses_records :
  ex_dir (OStart ex_a :: ex_ops1 ++ [OExtRename (cname ex_a) (rname ex_a 1); OReopen])
  = [(bs "a_r00000.log", bs "abcd"); (bs "a_r00001.log", bs "efgh"); (bs "a_rCURRENT.log", [])]
  /\ ex_dir (OStart ex_a :: ex_ops1 ++ [OExtRename (cname ex_a) (rname ex_a 1); OReopen] ++ ex_ops2 ++ [OStop])
  = [(bs "a_r00000.log", bs "abcd"); (bs "a_r00001.log", []); (bs "a_r00002.log", bs "ijkl"); (bs "a_r00003.log", bs "mnop");
     (bs "a_rCURRENT.log", bs "q")]
  /\ werrs (s_w (ReopenFacts.end_of (OStart ex_a :: ex_ops1 ++ [OExtRename (cname ex_a) (rname ex_a 1); OReopen] ++ ex_ops2 ++ [OStop]))) = []
  /\ List.map (fun ob => match ob with ObsRes code _ => code | _ => 0%N end)
       (snd (run (sys0 0 0) (OStart ex_a :: ex_ops1 ++ [OExtRename (cname ex_a) (rname ex_a 1); OReopen] ++ ex_ops2 ++ [OStop])))
     = List.repeat 0%N 14.
Proof. repeat (split; [vm_compute; reflexivity|]); vm_compute; reflexivity. Qed.

(* ---- theorem 2 on a history: the directory is the one of the history without the reopen ---- *)
Example ex_in_place_computed :
  ex_dir (OStart ex_a :: ex_ops1 ++ [OReopen] ++ ex_ops2 ++ [OStop])
  = [(bs "a_r00000.log", bs "abcd"); (bs "a_r00001.log", bs "efgh"); (bs "a_r00002.log", bs "ijkl");
     (bs "a_r00003.log", bs "mnop"); (bs "a_rCURRENT.log", bs "q")]
  /\ ex_dir (OStart ex_a :: ex_ops1 ++ ex_ops2 ++ [OStop]) = ex_dir (OStart ex_a :: ex_ops1 ++ [OReopen] ++ ex_ops2 ++ [OStop])
  /\ ex_dir (OStart ex_a :: ex_ops1 ++ [OReopen]) = [(bs "a_r00000.log", bs "abcd"); (bs "a_rCURRENT.log", bs "efgh")]
  /\ nth_error (snd (run (sys0 0 0) (OStart ex_a :: ex_ops1 ++ [OReopen] ++ ex_ops2 ++ [OStop]))) (S (length ex_ops1))
     = Some (ObsRes 0 false).
Proof. repeat (split; [vm_compute; reflexivity|]); vm_compute; reflexivity. Qed.

Example ex_in_place_thm :
  reads ex_a (wfs (s_w (fst (run (sys0 0 0) (OStart ex_a :: ex_ops1 ++ [OReopen] ++ ex_ops2 ++ [OStop])))))
        (expected_files 3 None (items false (ex_ops1 ++ ex_ops2)))
  /\ expected_files 3 None (items false (ex_ops1 ++ ex_ops2)) = [bs "abcd"; bs "efgh"; bs "ijkl"; bs "mnop"; bs "q"].
Proof.
  split; [|vm_compute; reflexivity].
  destruct ex_hyps as (Hc & _ & H1 & H2 & _).
  pose proof (reopen_numbers_in_place ex_a (CSize 3) 0 0 ex_ops1 ex_ops2 Hc H1 H2) as [_ T]. cbv zeta in T.
  destruct T as (files1 & files & _ & _ & R & _ & _ & P). rewrite (P 3%N eq_refl) in R. exact R.
Qed.

(* ---- theorem 3 on a history: reset from the family a_ to the family b_ ---- *)
Example ex_reset_computed :
  ex_dir (OStart ex_a :: ex_ops1)
  = [(bs "a_r00000.log", bs "abcd"); (bs "a_rCURRENT.log", bs "ef")]       (* "gh" is in the buffer *)
  /\ ex_dir (OStart ex_a :: ex_ops1 ++ [OReset ex_b] ++ ex_ops2 ++ [OStop])
  = [(bs "a_r00000.log", bs "abcd"); (bs "a_rCURRENT.log", bs "efgh");
     (bs "b_r00000.log", bs "ijkl"); (bs "b_r00001.log", bs "mnop"); (bs "b_rCURRENT.log", bs "q")]
  /\ nth_error (snd (run (sys0 0 0) (OStart ex_a :: ex_ops1 ++ [OReset ex_b] ++ ex_ops2 ++ [OStop]))) (S (length ex_ops1))
     = Some (ObsRes 0 false).
Proof. repeat (split; [vm_compute; reflexivity|]); vm_compute; reflexivity. Qed.

Example ex_reset_thm :
  dir_holds (wfs (s_w (fst (run (sys0 0 0) (OStart ex_a :: ex_ops1 ++ [OReset ex_b] ++ ex_ops2 ++ [OStop])))))
    (fam ex_a (expected_files 3 None (items false ex_ops1)) ++ fam ex_b (expected_files 3 None (items false ex_ops2)))
  /\ fam ex_a (expected_files 3 None (items false ex_ops1)) ++ fam ex_b (expected_files 3 None (items false ex_ops2))
     = [(bs "a_r00000.log", bs "abcd"); (bs "a_rCURRENT.log", bs "efgh");
        (bs "b_r00000.log", bs "ijkl"); (bs "b_r00001.log", bs "mnop"); (bs "b_rCURRENT.log", bs "q")].
Proof.
  split; [|vm_compute; reflexivity].
  destruct ex_hyps as (Hc & Hc2 & H1 & H2 & _ & _ & Hcap & P1 & P2).
  pose proof (reset_numbers ex_a (CSize 3) ex_b (CSize 3) 0 0 ex_ops1 ex_ops2 Hc Hc2 Hcap (foreign_family_prefix _ _ P1 P2) H1 H2)
    as [_ T]. cbv zeta in T.
  destruct T as (files1 & files2 & _ & _ & _ & E1 & E2 & D). rewrite (E1 3%N eq_refl), (E2 3%N eq_refl) in D. exact D.
Qed.

(* The hypothesis foreign_family and the family test.  Old family a_r0_ (basename "a_r0"), new family a_ (basename "a").  Before
   the repair of the number filter ("r" + digits and nothing else) the old files a_r0_r00000.log and a_r0_rCURRENT.log passed
   the family test of the new writer (infix "r0_r00000": an "r", a digit, one more byte), counted as index 0, and the numbering
   of the new family started at 1.  With the repaired filter they are foreign: the new family is exactly what a fresh start
   gives.  (foreign_family is still needed in general: a reset to a family whose names the old files DO follow.) *)
Definition ex_old := ex_cfg "a_r0" (Some 8) false.
Example ex_reset_no_interference :
  num_member ex_a (cname ex_old) = false /\ num_member ex_a (rname ex_old 0) = false
  /\ ex_dir (OStart ex_old :: ex_ops1 ++ [OReset ex_a] ++ ex_ops2 ++ [OStop])
     = [(bs "a_r00000.log", bs "ijkl"); (bs "a_r00001.log", bs "mnop"); (bs "a_r0_r00000.log", bs "abcd");
        (bs "a_r0_rCURRENT.log", bs "efgh"); (bs "a_rCURRENT.log", bs "q")]
  /\ ex_dir (OStart ex_a :: ex_ops2 ++ [OStop])
     = [(bs "a_r00000.log", bs "ijkl"); (bs "a_r00001.log", bs "mnop"); (bs "a_rCURRENT.log", bs "q")].
Proof. repeat (split; [vm_compute; reflexivity|]); vm_compute; reflexivity. Qed.

(* a reset to the SAME family: the old rCURRENT is closed by the start of the new writer (no append) or continued (append);
   the numbering continues, nothing is overwritten *)
Example ex_reset_same_family :
  ex_dir (OStart ex_a :: ex_ops1 ++ [OReset ex_a] ++ ex_ops2 ++ [OStop])
  = [(bs "a_r00000.log", bs "abcd"); (bs "a_r00001.log", bs "efgh"); (bs "a_r00002.log", bs "ijkl");
     (bs "a_r00003.log", bs "mnop"); (bs "a_rCURRENT.log", bs "q")]
  /\ ex_dir (OStart ex_a :: ex_ops1 ++ [OReset (ex_cfg "a" (Some 8) true)] ++ ex_ops2 ++ [OStop])
  = [(bs "a_r00000.log", bs "abcd"); (bs "a_r00001.log", bs "efgh"); (bs "a_r00002.log", bs "ijkl");
     (bs "a_r00003.log", bs "mnop"); (bs "a_rCURRENT.log", bs "q")].
Proof. repeat (split; [vm_compute; reflexivity|]); vm_compute; reflexivity. Qed.
