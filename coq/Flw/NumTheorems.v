(* Numbers naming: end-to-end statements about whole runs from an empty directory. *)
Require Import FL.Base.Bytes FL.Fs.Fs FL.Names.FileSpec FL.Flw.Model FL.Flw.ModelFacts FL.Flw.NumInv FL.Flw.Run
  FL.Flw.NumRun FL.Oracles.O_Flw.
Open Scope nat_scope.

Fixpoint items (started : bool) (ops : list op) : list item :=
  match ops with
  | [] => []
  | (OWrite b | OPlain b) :: r => IRec b :: items true r
  | OTrigger :: r => if started then ITrig :: items started r else items started r
  | _ :: r => items started r
  end.

Definition files_of (a : aview) : list bytes := match a with Some (cl, cu) => cl ++ [cu] | None => [] end.

Lemma s_run_partition m ops : forall cl cu, Forall basic_op ops ->
  files_of (s_run m (Some (cl, cu)) ops) = partition m cl cu (items true ops).
Proof.
  induction ops as [|o r IH]; intros cl cu Hb; [reflexivity|].
  inversion Hb as [|o' r' Ho Hr]; subst. destruct o; try contradiction; cbn [s_run a_step items partition cur_of].
  - destruct (m <? N.of_nat (length cu))%N; apply IH; assumption.
  - destruct (m <? N.of_nat (length cu))%N; apply IH; assumption.
  - apply IH; assumption.
  - apply IH; assumption.
  - apply IH; assumption.
  - apply IH; assumption.
Qed.

Lemma s_run_none m ops : Forall basic_op ops ->
  files_of (s_run m None ops) = expected_files m None (items false ops).
Proof.
  induction ops as [|o r IH]; intros Hb; [reflexivity|].
  inversion Hb as [|o' r' Ho Hr]; subst. destruct o; try contradiction; cbn [s_run a_step items cur_of]; try (apply IH; assumption).
  - change (m <? N.of_nat (length (@nil N)))%N with (m <? 0)%N. rewrite (proj2 (N.ltb_ge m 0)) by lia.
    cbn [app]. rewrite s_run_partition by assumption. unfold expected_files. cbn [has_rec partition length].
    change (m <? N.of_nat 0)%N with (m <? 0)%N. rewrite (proj2 (N.ltb_ge m 0)) by lia. reflexivity.
  - change (m <? N.of_nat (length (@nil N)))%N with (m <? 0)%N. rewrite (proj2 (N.ltb_ge m 0)) by lia.
    cbn [app]. rewrite s_run_partition by assumption. unfold expected_files. cbn [has_rec partition length].
    change (m <? N.of_nat 0)%N with (m <? 0)%N. rewrite (proj2 (N.ltb_ge m 0)) by lia. reflexivity.
Qed.

Lemma items_written started ops : Forall basic_op ops -> recs_of (items started ops) = written ops.
Proof.
  revert started. induction ops as [|o r IH]; intros started Hb; [reflexivity|].
  inversion Hb as [|o' r' Ho Hr]; subst. destruct o; try contradiction; cbn [items written recs_of]; try (apply IH; assumption).
  - f_equal. apply IH; assumption.
  - f_equal. apply IH; assumption.
  - destruct started; cbn [recs_of]; apply IH; assumption.
Qed.

Definition reads (c : config) (f : fs) (files : list bytes) : Prop :=
  match files with
  | [] => names f = []
  | _ => exists closed cur, files = closed ++ [cur] /\ reader_view c f closed cur
  end.

Lemma start_rel c crit t0 off : Rel c crit (fst (step (sys0 t0 off) (OStart c))) None.
Proof. cbn. repeat split. Qed.

Lemma files_of_reads c f a : match a with None => names f = [] | Some (closed, cur) => reader_view c f closed cur end ->
  reads c f (files_of a).
Proof.
  destruct a as [[cl cu]|]; cbn [files_of]; intros H; [|exact H].
  unfold reads. destruct (cl ++ [cu]) eqn:E; [destruct cl; discriminate|]. rewrite <- E. eauto.
Qed.

(* C01 for Numbers naming: any criterion.  After the writer is stopped, the files r00000.., rCURRENT hold,
   in this order, a partition of exactly the bytes written. *)
Theorem numbers_stream c crit t0 off ops :
  numcfg c crit -> Forall basic_op ops ->
  exists files, reads c (wfs (s_w (fst (run (sys0 t0 off) (OStart c :: ops ++ [OStop]))))) files
    /\ concat files = written ops.
Proof.
  intros Hcfg Hb. cbn [run]. destruct (step (sys0 t0 off) (OStart c)) as [x0 ob0] eqn:E0.
  pose proof (start_rel c crit t0 off) as R0. rewrite E0 in R0. cbn [fst] in R0.
  rewrite run_app. pose proof (run_rel c crit Hcfg ops x0 None R0 Hb) as R1. pose proof (run_length ops x0) as L.
  destruct (run x0 ops) as [x1 obs1]. cbn [fst snd] in *.
  pose proof (stop_rel c crit x1 _ Hcfg R1) as S. cbn [run]. destruct (step x1 OStop) as [x2 ob2]. cbn [fst].
  exists (files_of (a_run None ops obs1)). split; [apply files_of_reads; exact S|].
  pose proof (a_run_flat ops None obs1 Hb L) as F. cbn [flat app] in F. rewrite <- F.
  destruct (a_run None ops obs1) as [[cl cu]|]; cbn [files_of flat concat]; [|reflexivity].
  rewrite concat_app. cbn [concat]. rewrite app_nil_r. reflexivity.
Qed.

(* C08 for Numbers naming with a size criterion: the files are the greedy partition.  (That each write reports a
   rotation exactly when the current file - disk + buffer - already exceeds the limit is numbers_rotates_iff.) *)
Theorem numbers_partition c m t0 off ops :
  numcfg c (CSize m) -> Forall basic_op ops ->
  reads c (wfs (s_w (fst (run (sys0 t0 off) (OStart c :: ops ++ [OStop]))))) (expected_files m None (items false ops)).
Proof.
  intros Hcfg Hb. cbn [run]. destruct (step (sys0 t0 off) (OStart c)) as [x0 ob0] eqn:E0.
  pose proof (start_rel c (CSize m) t0 off) as R0. rewrite E0 in R0. cbn [fst] in R0.
  rewrite run_app. pose proof (run_rel c (CSize m) Hcfg ops x0 None R0 Hb) as R1.
  pose proof (run_size c m Hcfg ops x0 None R0 Hb) as [Hs _].
  destruct (run x0 ops) as [x1 obs1]. cbn [fst snd] in *.
  pose proof (stop_rel c (CSize m) x1 _ Hcfg R1) as S. cbn [run]. destruct (step x1 OStop) as [x2 ob2]. cbn [fst].
  rewrite <- s_run_none by assumption. rewrite <- Hs. apply files_of_reads. exact S.
Qed.

Theorem numbers_rotates_iff c m t0 off ops i o b :
  numcfg c (CSize m) -> Forall basic_op ops -> nth_error ops i = Some o -> (o = OWrite b \/ o = OPlain b) ->
  nth_error (snd (run (sys0 t0 off) (OStart c :: ops))) (S i)
  = Some (ObsRes 0 (m <? N.of_nat (length (cur_of (s_run m None (firstn i ops)))))%N).
Proof.
  intros Hcfg Hb Hi Ho. cbn [run]. destruct (step (sys0 t0 off) (OStart c)) as [x0 ob0] eqn:E0.
  pose proof (start_rel c (CSize m) t0 off) as R0. rewrite E0 in R0. cbn [fst] in R0.
  pose proof (run_size c m Hcfg ops x0 None R0 Hb) as [_ Hr].
  destruct (run x0 ops) as [x1 obs1]. cbn [snd nth_error] in *. exact (Hr i o Hi b Ho).
Qed.
