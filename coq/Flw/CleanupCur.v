(* The cleanup with the current output file handed over (list_and_cleanup.rs after the repair:
   remove_or_compress_too_old_logfiles_impl(.., o_current), model: cleanup_loop / cleanup_impl with cur : option bytes),
   in a world without faults and kills: the entry equal to cur is skipped - it stays as it is, at whatever position the
   listing has it, and its position still counts -, every other entry is treated as before.
   (The theorems of CleanupFacts.v about a loop that skips entries, with `is_cur cur` as the test.) *)
Require Import FL.Base.Bytes FL.Base.PathName FL.Fs.Fs FL.Fs.FsFacts FL.Names.FileSpec FL.Flw.Model FL.Flw.ModelFacts
  FL.Flw.CleanupFacts.
Open Scope nat_scope.

Definition is_cur (cur : option bytes) (n : bytes) : bool := match cur with Some p => beq p n | None => false end.

Lemma is_cur_none n : is_cur None n = false.
Proof. reflexivity. Qed.

(* what the loop does with the entry n at position idx of the listing *)
Definition actc (cur : option bytes) (ll total idx : nat) (n : bytes) : action :=
  if is_cur cur n then AKeep else act ll total idx n.

Lemma actc_none ll total idx n : actc None ll total idx n = act ll total idx n.
Proof. reflexivity. Qed.

Lemma cleanup_loop_consc w n r idx ll total cur :
  cleanup_loop w (n :: r) idx ll total cur =
  match actc cur ll total idx n with
  | ARemove => let '(ok, w1) := p_remove w n in if ok then cleanup_loop w1 r (S idx) ll total cur else (false, w1)
  | ACompress => let '(ok, w1) := compress_file w n in if ok then cleanup_loop w1 r (S idx) ll total cur else (false, w1)
  | AKeep => cleanup_loop w r (S idx) ll total cur
  end.
Proof. exact (cleanup_loop_cons_skip cur (is_cur cur) (fun _ => eq_refl) w n r idx ll total). Qed.

(* a name that is neither an archive (extension gz) nor the current output file: the entries of the zone that the loop
   compresses *)
Definition not_gzc (cur : option bytes) (n : bytes) : bool := not_gz n && negb (is_cur cur n).

(* remove_redundant followed by the loop, as in cleanup_impl, for EVERY cur.  The current output file is protected in the
   loop only: were it an archive whose original is listed too, it would be removed before the loop (it is not: a file
   that is being written has no archive name - see CurrentSpared.v for the statement about cleanup_impl). *)
Theorem cleanup_after_listingc w files ll total cur :
  quiet w -> fs_wf (wfs w) -> NoDup files -> ~ In [] files -> ll <= total ->
  (forall n, In n files -> lookup (wfs w) n <> None) ->
  (forall n, In n files -> not_dir (wfs w) (gz_name n)) ->
  let red := redundant_gz files in
  let files' := without red files in
  exists w1 w', remove_redundant w red files = (true, w1, files')
    /\ cleanup_loop w1 files' 0 ll total cur = (true, w') /\ same_env w w' /\ fs_wf (wfs w')
    (* a redundant archive is gone - unless its original is compressed now, which creates it anew (see the zone) *)
    /\ (forall n, In n red -> ~ In n (map gz_name (filter (not_gzc cur) (zone_part ll total files'))) -> lookup (wfs w') n = None)
    /\ (forall n, In n (keep_part ll files') -> same_at (wfs w) (wfs w') n)
    /\ (forall n, In n (zone_part ll total files') ->
          if ext_is n gz_sfx || is_cur cur n then same_at (wfs w) (wfs w') n else archived (wfs w) (wfs w') n)
    /\ (forall n, In n (gone_part total files') ->
          if is_cur cur n then same_at (wfs w) (wfs w') n else lookup (wfs w') n = None)
    /\ length (keep_part ll files') <= ll /\ length (zone_part ll total files') <= total - ll
    /\ (forall m, ~ In m files -> ~ In m (map gz_name (filter (not_gzc cur) (zone_part ll total files'))) ->
          same_at (wfs w) (wfs w') m)
    (* the current output file: untouched wherever it is listed *)
    /\ (forall p, cur = Some p -> In p files' -> same_at (wfs w) (wfs w') p).
Proof. exact (cleanup_after_listing_skip cur (is_cur cur) (fun _ => eq_refl) w files ll total). Qed.
Print Assumptions cleanup_after_listingc.

(* for cur = None this is cleanup_after_listing, word for word *)
Lemma not_gzc_none n : not_gzc None n = not_gz n.
Proof. unfold not_gzc. cbn [is_cur negb]. apply andb_true_r. Qed.
