(* File-system level description of one rotation with rename (rCURRENT namings):
   rename current -> target, create a fresh current, the old writer flushes into its (renamed) inode. *)
Require Import FL.Base.Bytes FL.Base.BytesFacts FL.Fs.Fs.
Require Export FL.Fs.FsFacts.
Open Scope nat_scope.

Lemma inode_append f i b j : (i < length (inodes f)) ->
  inode (append_ino f i b) j = if Nat.eqb j i then with_data (inode f i) (content f i ++ b) else inode f j.
Proof. intros H. unfold inode at 1. cbn [append_ino inodes]. rewrite nth_upd by assumption. reflexivity. Qed.

Definition fresh_file (now : Z) : file := {| fdata := []; fgz := 0%N; fborn := now; fdir := false |}.

Lemma rotate_fs_spec f cur tgt old pend now : fs_wf f -> cur <> tgt -> lookup f cur = Some old -> lookup f tgt = None ->
  exists f1, rename f cur tgt = Some f1 /\
    let f2 := fst (create_file f1 cur 0%N now) in
    let new := snd (create_file f1 cur 0%N now) in
    let f3 := append_ino f2 old pend in
    lookup f1 cur = None /\ inodes f1 = inodes f /\
    fs_wf f3 /\ new = length (inodes f) /\ lookup f3 cur = Some new /\ lookup f3 tgt = Some old
    /\ (forall n, n <> cur -> n <> tgt -> lookup f3 n = lookup f n)
    /\ length (inodes f3) = S (length (inodes f))
    /\ inode f3 new = fresh_file now
    /\ inode f3 old = with_data (inode f old) (content f old ++ pend)
    /\ (forall j, j <> new -> j <> old -> inode f3 j = inode f j).
Proof.
  intros W Hne Hc Ht. destruct (rename_spec f cur tgt old Hne Hc) as [f1 [E [Hino [Lt [Lc Lo]]]]].
  exists f1. split; [exact E|]. cbn zeta.
  pose proof (wf_rename f cur tgt f1 W E) as W1.
  pose proof (create_file_spec f1 cur 0%N now) as S. pose proof (wf_create f1 cur 0%N now W1 Lc) as W2.
  destruct (create_file f1 cur 0%N now) as [f2 new]. cbn [fst snd] in *. destruct S as [-> [Hino2 [L2c L2o]]].
  pose proof (wf_bound f W cur old Hc) as Hold.
  assert (Hold2 : old < length (inodes f2)) by (rewrite Hino2, Hino, app_length; cbn; lia).
  split; [exact Lc|]. split; [exact Hino|].
  split; [apply wf_append; exact W2|]. split; [rewrite Hino; reflexivity|].
  split; [rewrite lookup_append; exact L2c|].
  split; [rewrite lookup_append, L2o by congruence; exact Lt|].
  split. { intros n H1 H2. rewrite lookup_append, L2o by assumption. apply Lo; assumption. }
  split; [rewrite len_append, Hino2, Hino, app_length; cbn; lia|].
  split. { rewrite inode_append by assumption. destruct (Nat.eqb_spec (length (inodes f1)) old) as [E0|_]; [rewrite Hino in E0; lia|].
           unfold inode. rewrite Hino2, inode_app_new. reflexivity. }
  split. { rewrite inode_append, Nat.eqb_refl by assumption. unfold content, inode. rewrite Hino2, inode_app_old by (rewrite Hino; assumption).
           rewrite Hino. reflexivity. }
  intros j Hj1 Hj2. rewrite inode_append by assumption. destruct (Nat.eqb_spec j old); [congruence|].
  unfold inode. rewrite Hino2, Hino in *. destruct (Nat.lt_ge_cases j (length (inodes f))) as [Hlt|Hge].
  - rewrite inode_app_old by assumption. reflexivity.
  - rewrite !nth_overflow; [reflexivity | lia | rewrite app_length; cbn; lia].
Qed.
