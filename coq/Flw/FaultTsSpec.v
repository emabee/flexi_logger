(* C19 with rotation, Timestamps naming (rCURRENT + r<time stamp>[.restart-NNNN]): the executable SPECIFICATION of what a
   FileLogWriter with Timestamps naming, size criterion, direct mode (no buffer), no cleanup, synchronous, makes of a
   list of records - each preceded by an advance of the clock - when the file-system calls fail as an arbitrary fault
   oracle says; and what the specification implies.  The refinement proof (the model `run` does exactly this) is in
   FaultTs.v.

   What the model (and the code) does, read off write_buffer / mount_next / initialize:

   (iii) a failing step of the INITIALISATION.  Without append: the two read_dir of the collision-free infix, the rename
         of an old rCURRENT (there is none: NotFound is tolerated, but the call is made and can fail), the open/create of
         rCURRENT.  With append: the open/create of rCURRENT, the metadata call.  initialize returns Err, write_buffer
         returns Err BEFORE anything is written, the record is LOST, the handle reports EWrite, the state stays `Initial`:
         the next record initialises again from the beginning.  With append, an rCURRENT that was created before the
         failing metadata call stays (empty) and is continued later - its birth time becomes the time stamp of the naming
         state (the name it gets when it is closed), also when the clock has advanced.
   (i)   a rotation makes FOUR fallible calls: read_dir, read_dir (the collision-free infix for the time stamp ts of the
         naming state = the second rCURRENT was started), rename rCURRENT -> r<ts>[.restart-NNNN], open/create the new
         rCURRENT.  When one of the first three fails, mount_next returns Err with the state unchanged (time stamp
         included), write_buffer reports ELogFile and WRITES THE RECORD WITH THE OLD WRITER into the (over-full) rCURRENT.
         Nothing is lost; the size counter still exceeds the limit, the next record tries again.
   (ii)  the rename succeeds, the OPEN/CREATE of the new rCURRENT fails: mount_next returns Err; the time stamp of the
         naming state has ALREADY been set to the present second (the birth time of the - not existing - rCURRENT is the
         clock); the writer is still the old one, whose file is now called r<ts>[.restart-NNNN]; write_buffer reports
         ELogFile and WRITES THE RECORD INTO THE RENAMED FILE.  Nothing is lost, the order is kept (that file is the newest
         closed file, there is no rCURRENT) - state ZOld.  The next record tries the rotation again: two read_dir for the
         infix of the NEW time stamp (the result is not used for anything), the rename finds no rCURRENT (NotFound is
         tolerated; nothing is renamed, no file is overwritten, the name of the renamed file is not used a second time),
         a new rCURRENT is created; the time stamp of the naming state is the second of THAT attempt - the second the new
         rCURRENT is created.  The time stamp that was set by the failed attempt names no file, ever.
   (iv)  the WRITE itself fails: write_buffer returns Err, the size counter is not increased, the record is LOST, the handle
         reports EWrite; the writer state is as before.
   Every oracle entry `true` that is consumed yields exactly one reported error (ELogFile: rotation step, record
   kept; EWrite: record lost).  No log call panics or returns an error. *)
Require Import FL.Base.Bytes FL.Fs.Fs FL.Flw.Model FL.Flw.Run FL.Flw.NumRun FL.Flw.TsNames FL.Flw.TsInv FL.Flw.FaultFacts
  FL.Flw.FaultRotSpec FL.Flw.FaultTsdSpec.
From Coq Require Import ZifyN ZifyNat ZifyBool.
Open Scope nat_scope.

(* ------------------------------------------------------------------ the specification *)
(* the abstract state: directory, writer, time stamp of the naming state.  A closed file is named by its key (second of
   its start, position among the files of that second: 0 = <ts>, S n = <ts>.restart-<n>) *)
Inductive zst :=
| ZInit (created : option Z)
    (* writer not initialised; the directory is empty / holds the empty rCURRENT, born in second t *)
| ZCur (keys : list key) (closed : list bytes) (ts : Z) (d : bytes)
    (* length keys = length closed: the closed files; rCURRENT holds d, the writer writes into it; it will be closed
       under the time stamp ts *)
| ZOld (keys : list key) (closed : list bytes) (ts : Z) (d : bytes).
    (* length keys = S (length closed): the closed files and, under the last key, the file that was rCURRENT and holds d;
       NO rCURRENT: the new one could not be created; the writer still writes into the renamed file; ts: the time stamp
       the naming state was given by the failed rotation (it will name nothing) *)

Definition z_keys (st : zst) : list key :=
  match st with ZInit _ => [] | ZCur keys _ _ _ => keys | ZOld keys _ _ _ => keys end.
(* the contents of the files named by the keys *)
Definition z_closed (st : zst) : list bytes :=
  match st with ZInit _ => [] | ZCur _ closed _ _ => closed | ZOld _ closed _ d => closed ++ [d] end.
(* rCURRENT *)
Definition z_cur (st : zst) : option bytes :=
  match st with ZInit None => None | ZInit (Some _) => Some [] | ZCur _ _ _ d => Some d | ZOld _ _ _ _ => None end.
(* the time stamp of the naming state *)
Definition z_ts (st : zst) : option Z :=
  match st with ZInit _ => None | ZCur _ _ ts _ => Some ts | ZOld _ _ ts _ => Some ts end.
(* what a reader finds: the closed files in the order of their keys, then rCURRENT *)
Definition zstream (st : zst) : bytes := concat (z_closed st) ++ match z_cur st with Some d => d | None => [] end.

(* an initialised writer on rCURRENT; now: the present second *)
Definition z_active (m : N) (now : Z) (keys : list key) (closed : list bytes) (ts : Z) (d b : bytes) (fl : list bool)
  : zst * list ecode * list bool :=
  let stay fl0 := let '(d', e, fl') := s_write d b fl0 in (ZCur keys closed ts d', ELogFile :: e, fl') in
  if (m <? N.of_nat (length d))%N then
    let '(f1, fl1) := pop fl in                               (* read_dir *)
    if f1 then stay fl1 else
    let '(f2, fl2) := pop fl1 in                              (* read_dir *)
    if f2 then stay fl2 else
    let '(f3, fl3) := pop fl2 in                              (* rename rCURRENT -> r<ts>[.restart-NNNN] *)
    if f3 then stay fl3 else
    let k := (ts, count ts keys) in
    let '(f4, fl4) := pop fl3 in                              (* open/create the new rCURRENT *)
    if f4 then let '(d', e, fl') := s_write d b fl4 in (ZOld (keys ++ [k]) closed now d', ELogFile :: e, fl')
    else let '(d', e, fl') := s_write [] b fl4 in (ZCur (keys ++ [k]) (closed ++ [d]) now d', e, fl')
  else let '(d', e, fl') := s_write d b fl in (ZCur keys closed ts d', e, fl').

(* an initialised writer on the renamed file (the last key) *)
Definition z_old (m : N) (now : Z) (keys : list key) (closed : list bytes) (ts : Z) (d b : bytes) (fl : list bool)
  : zst * list ecode * list bool :=
  let stay t fl0 := let '(d', e, fl') := s_write d b fl0 in (ZOld keys closed t d', ELogFile :: e, fl') in
  if (m <? N.of_nat (length d))%N then
    let '(f1, fl1) := pop fl in                               (* read_dir *)
    if f1 then stay ts fl1 else
    let '(f2, fl2) := pop fl1 in                              (* read_dir *)
    if f2 then stay ts fl2 else
    let '(f3, fl3) := pop fl2 in                              (* rename: rCURRENT is not found, nothing happens *)
    if f3 then stay ts fl3 else
    let '(f4, fl4) := pop fl3 in                              (* open/create the new rCURRENT *)
    if f4 then stay now fl4
    else let '(d', e, fl') := s_write [] b fl4 in (ZCur keys (closed ++ [d]) now d', e, fl')
  else let '(d', e, fl') := s_write d b fl in (ZOld keys closed ts d', e, fl').

(* a writer that is not initialised yet *)
Definition z_init (app : bool) (m : N) (now : Z) (created : option Z) (b : bytes) (fl : list bool) : zst * list ecode * list bool :=
  let '(f1, fl1) := if app then (false, fl) else pop fl in    (* read_dir (not with append) *)
  if f1 then (ZInit created, [EWrite], fl1) else
  let '(f2, fl2) := if app then (false, fl1) else pop fl1 in  (* read_dir (not with append) *)
  if f2 then (ZInit created, [EWrite], fl2) else
  let '(f3, fl3) := if app then (false, fl2) else pop fl2 in  (* rename of an old rCURRENT (not with append) *)
  if f3 then (ZInit created, [EWrite], fl3) else
  let '(f4, fl4) := pop fl3 in                                (* open/create rCURRENT *)
  if f4 then (ZInit created, [EWrite], fl4) else
  let t := match created with Some t0 => t0 | None => now end in
  let '(f5, fl5) := if app then pop fl4 else (false, fl4) in  (* metadata (with append) *)
  if f5 then (ZInit (Some t), [EWrite], fl5) else
  z_active m now [] [] t [] b fl5.

(* one record: the clock advances by dt, then the record b is logged *)
Definition zstep (app : bool) (m : N) (now : Z) (st : zst) (fl : list bool) (r : Z * bytes) : zst * list ecode * list bool :=
  match st with
  | ZInit created => z_init app m (now + fst r) created (snd r) fl
  | ZCur keys closed ts d => z_active m (now + fst r) keys closed ts d (snd r) fl
  | ZOld keys closed ts d => z_old m (now + fst r) keys closed ts d (snd r) fl
  end.

Fixpoint simts_st (app : bool) (m : N) (now : Z) (st : zst) (fl : list bool) (recs : list (Z * bytes)) : zst * list ecode * list bool :=
  match recs with
  | [] => (st, [], fl)
  | r :: rest =>
    let '(st1, e1, fl1) := zstep app m now st fl r in
    let '(st2, e2, fl2) := simts_st app m (now + fst r) st1 fl1 rest in (st2, e1 ++ e2, fl2)
  end.

(* simts: what simts_st says from the start at t0, as keys and contents of the closed files, rCURRENT, the reported errors
   (with their codes), the rest of the oracle *)
Definition simts (app : bool) (m : N) (t0 : Z) (fl : list bool) (recs : list (Z * bytes))
  : list key * list bytes * option bytes * list ecode * list bool :=
  let '(st, e, fl') := simts_st app m t0 (ZInit None) fl recs in (z_keys st, z_closed st, z_cur st, e, fl').

(* ------------------------------------------------------------------ the calls of one record *)
Lemma z_active_alt m now keys closed ts d b fl :
  z_active m now keys closed ts d b fl =
  if (m <? N.of_nat (length d))%N then
    match npops 4 fl with
    | (Some 0, fl') => let '(d', e, fl'') := s_write d b fl' in (ZOld (keys ++ [(ts, count ts keys)]) closed now d', ELogFile :: e, fl'')
    | (Some _, fl') => let '(d', e, fl'') := s_write d b fl' in (ZCur keys closed ts d', ELogFile :: e, fl'')
    | (None, fl') => let '(d', e, fl'') := s_write [] b fl' in (ZCur (keys ++ [(ts, count ts keys)]) (closed ++ [d]) now d', e, fl'')
    end
  else let '(d', e, fl') := s_write d b fl in (ZCur keys closed ts d', e, fl').
Proof.
  unfold z_active. cbn [npops]. destruct (m <? N.of_nat (length d))%N; [|reflexivity].
  destruct (pop fl) as [f1 fl1]. destruct f1; [reflexivity|].
  destruct (pop fl1) as [f2 fl2]. destruct f2; [reflexivity|].
  destruct (pop fl2) as [f3 fl3]. destruct f3; [reflexivity|].
  destruct (pop fl3) as [f4 fl4]. destruct f4; reflexivity.
Qed.

Lemma z_old_alt m now keys closed ts d b fl :
  z_old m now keys closed ts d b fl =
  if (m <? N.of_nat (length d))%N then
    match npops 4 fl with
    | (Some 0, fl') => let '(d', e, fl'') := s_write d b fl' in (ZOld keys closed now d', ELogFile :: e, fl'')
    | (Some _, fl') => let '(d', e, fl'') := s_write d b fl' in (ZOld keys closed ts d', ELogFile :: e, fl'')
    | (None, fl') => let '(d', e, fl'') := s_write [] b fl' in (ZCur keys (closed ++ [d]) now d', e, fl'')
    end
  else let '(d', e, fl') := s_write d b fl in (ZOld keys closed ts d', e, fl').
Proof.
  unfold z_old. cbn [npops]. destruct (m <? N.of_nat (length d))%N; [|reflexivity].
  destruct (pop fl) as [f1 fl1]. destruct f1; [reflexivity|].
  destruct (pop fl1) as [f2 fl2]. destruct f2; [reflexivity|].
  destruct (pop fl2) as [f3 fl3]. destruct f3; [reflexivity|].
  destruct (pop fl3) as [f4 fl4]. destruct f4; reflexivity.
Qed.

(* the oracle entries of one initialisation: without append the two listings and the rename come first *)
Definition z_init_pops (app : bool) (fl : list bool) : option bool * list bool := init_pops ((if app then 0 else 3) + 1) app fl.

Definition z_first (now : Z) (created : option Z) : Z := match created with Some t0 => t0 | None => now end.

Lemma z_init_alt app m now created b fl :
  z_init app m now created b fl
  = match z_init_pops app fl with
    | (Some k, fl') => (ZInit (if k then Some (z_first now created) else created), [EWrite], fl')
    | (None, fl') => z_active m now [] [] (z_first now created) [] b fl'
    end.
Proof.
  unfold z_init, z_init_pops, init_pops, z_first. destruct app; cbn [npops Nat.add].
  - destruct (pop fl) as [f4 fl4]. destruct f4; [reflexivity|].
    destruct (pop fl4) as [f5 fl5]. destruct f5; reflexivity.
  - destruct (pop fl) as [f1 fl1]. destruct f1; [reflexivity|].
    destruct (pop fl1) as [f2 fl2]. destruct f2; [reflexivity|].
    destruct (pop fl2) as [f3 fl3]. destruct f3; [reflexivity|].
    destruct (pop fl3) as [f4 fl4]. destruct f4; reflexivity.
Qed.

(* ------------------------------------------------------------------ one record *)
Lemma zstream_cur keys closed ts d : zstream (ZCur keys closed ts d) = concat closed ++ d.
Proof. reflexivity. Qed.
Lemma zstream_old keys closed ts d : zstream (ZOld keys closed ts d) = concat closed ++ d.
Proof. unfold zstream. cbn [z_closed z_cur]. rewrite concat_app. cbn [concat]. rewrite !app_nil_r. reflexivity. Qed.
Lemma zstream_init created : zstream (ZInit created) = [].
Proof. destruct created; reflexivity. Qed.

Lemma z_active_ok m now keys closed ts d b fl : stream_step_ok zstream (ZCur keys closed ts d) fl b (z_active m now keys closed ts d b fl).
Proof.
  rewrite z_active_alt. destruct (m <? N.of_nat (length d))%N.
  - pose proof (npops_used 4 fl) as U. destruct (npops 4 fl) as [[[|j]|] fl']; cbn [fst snd failed] in U.
    + exact (write_step_in zstream (ZCur keys closed ts d) fl b fl' [ELogFile] (concat closed) d (fun d' => ZOld _ closed now d')
               U eq_refl eq_refl (fun d' => zstream_old _ closed now d')).
    + exact (write_step_in zstream (ZCur keys closed ts d) fl b fl' [ELogFile] (concat closed) d (fun d' => ZCur keys closed ts d')
               U eq_refl eq_refl (fun d' => eq_refl)).
    + apply (write_step_in zstream (ZCur keys closed ts d) fl b fl' [] (concat closed ++ d) [] (fun d' => ZCur _ (closed ++ [d]) now d') U eq_refl).
      * rewrite app_nil_r. reflexivity.
      * intros d'. rewrite zstream_cur, concat_app. cbn [concat]. rewrite app_nil_r. reflexivity.
  - exact (write_step_in zstream (ZCur keys closed ts d) fl b fl [] (concat closed) d (fun d' => ZCur keys closed ts d')
             (acct_refl fl) eq_refl eq_refl (fun d' => eq_refl)).
Qed.

Lemma z_old_ok m now keys closed ts d b fl : stream_step_ok zstream (ZOld keys closed ts d) fl b (z_old m now keys closed ts d b fl).
Proof.
  rewrite z_old_alt. destruct (m <? N.of_nat (length d))%N.
  - pose proof (npops_used 4 fl) as U. destruct (npops 4 fl) as [[[|j]|] fl']; cbn [fst snd failed] in U.
    + exact (write_step_in zstream (ZOld keys closed ts d) fl b fl' [ELogFile] (concat closed) d (fun d' => ZOld keys closed now d')
               U eq_refl (zstream_old _ _ _ _) (fun d' => zstream_old _ closed now d')).
    + exact (write_step_in zstream (ZOld keys closed ts d) fl b fl' [ELogFile] (concat closed) d (fun d' => ZOld keys closed ts d')
               U eq_refl (zstream_old _ _ _ _) (fun d' => zstream_old _ closed ts d')).
    + apply (write_step_in zstream (ZOld keys closed ts d) fl b fl' [] (concat closed ++ d) [] (fun d' => ZCur keys (closed ++ [d]) now d') U eq_refl).
      * rewrite app_nil_r. apply zstream_old.
      * intros d'. rewrite zstream_cur, concat_app. cbn [concat]. rewrite app_nil_r. reflexivity.
  - exact (write_step_in zstream (ZOld keys closed ts d) fl b fl [] (concat closed) d (fun d' => ZOld keys closed ts d')
             (acct_refl fl) eq_refl (zstream_old _ _ _ _) (fun d' => zstream_old _ closed ts d')).
Qed.

Lemma z_init_ok app m now created b fl : stream_step_ok zstream (ZInit created) fl b (z_init app m now created b fl).
Proof.
  rewrite z_init_alt. pose proof (init_pops_used ((if app then 0 else 3) + 1) app fl) as U. fold (z_init_pops app fl) in U.
  destruct (z_init_pops app fl) as [[k|] fl']; cbn [fst snd failed] in U.
  - exact (init_fails_ok zstream _ _ fl fl' b U (zstream_init _) (zstream_init _)).
  - apply (stream_step_prefix zstream (ZInit created) (ZCur [] [] (z_first now created) []) fl fl' b _ U); [rewrite zstream_init; reflexivity | apply z_active_ok].
Qed.

Theorem zstep_ok_all app m now st fl r : stream_step_ok zstream st fl (snd r) (zstep app m now st fl r).
Proof. destruct st as [created|keys closed ts d|keys closed ts d]; cbn [zstep]; [apply z_init_ok | apply z_active_ok | apply z_old_ok]. Qed.

(* ------------------------------------------------------------------ whole lists of records *)
(* per record: the record, the reports of its log call, the oracle entries its log call consumed *)
Fixpoint tracez (app : bool) (m : N) (now : Z) (st : zst) (fl : list bool) (recs : list (Z * bytes)) : list entry :=
  match recs with
  | [] => []
  | r :: rest =>
    let '(st1, e1, fl1) := zstep app m now st fl r in
    {| t_rec := snd r; t_errs := e1; t_used := firstn (length fl - length fl1) fl |} :: tracez app m (now + fst r) st1 fl1 rest
  end.

(* (2) Only records during whose own log call a failing call was consumed can be missing; the stream (the closed files in
   the order of their keys, then rCURRENT) consists of the other records, in order, each once. *)
Theorem ts_lost_only_around_failures_spec app m t0 fl recs :
  let '(st', e, fl') := simts_st app m t0 (ZInit None) fl recs in
  let t := tracez app m t0 (ZInit None) fl recs in
  List.map t_rec t = List.map snd recs
  /\ fl = concat (List.map t_used t) ++ fl'
  /\ e = concat (List.map t_errs t)
  /\ zstream st' = concat (List.map t_kept t)
  /\ (forall x, In x t -> length (t_errs x) = ntrue (t_used x))
  /\ (forall x, In x t -> (forall f, In f (t_used x) -> f = false) -> t_errs x = [] /\ t_kept x = t_rec x)
  /\ (forall x, In x t -> t_kept x <> t_rec x -> In true (t_used x) /\ In EWrite (t_errs x)).
Proof.
  exact (lost_only_around_failures_gen (clocked zst (zstep app m) zstream (simts_st app m) (tracez app m) (fun _ _ _ => eq_refl)
           (fun _ _ _ _ _ => eq_refl) (fun _ _ _ => eq_refl) (fun _ _ _ _ _ => eq_refl) (zstep_ok_all app m)) t0 (ZInit None) fl recs eq_refl).
Qed.

(* the codes that occur *)
Lemma zstep_codes app m now st fl r c : In c (snd (fst (zstep app m now st fl r))) -> c = EWrite \/ c = ELogFile.
Proof.
  assert (P : forall (mk : bytes -> zst) d b fl0, In c (snd (fst (let '(d', e, fl') := s_write d b fl0 in (mk d', e, fl')))) -> c = EWrite \/ c = ELogFile).
  { intros mk d b fl0. apply (write_step_codes mk []). intros x []. }
  assert (L : forall (mk : bytes -> zst) d b fl0, In c (snd (fst (let '(d', e, fl') := s_write d b fl0 in (mk d', ELogFile :: e, fl')))) -> c = EWrite \/ c = ELogFile).
  { intros mk d b fl0. apply (write_step_codes mk [ELogFile]). intros x [<-|[]]; auto. }
  assert (A : forall nw keys closed ts d b fl0, In c (snd (fst (z_active m nw keys closed ts d b fl0))) -> c = EWrite \/ c = ELogFile).
  { intros nw keys closed ts d b fl0. rewrite z_active_alt. destruct (m <? N.of_nat (length d))%N; [|apply (P (fun d' => ZCur keys closed ts d'))].
    destruct (npops 4 fl0) as [[[|j]|] fl'].
    - apply (L (fun d' => ZOld (keys ++ [(ts, count ts keys)]) closed nw d')).
    - apply (L (fun d' => ZCur keys closed ts d')).
    - apply (P (fun d' => ZCur (keys ++ [(ts, count ts keys)]) (closed ++ [d]) nw d')). }
  destruct st as [created|keys closed ts d|keys closed ts d]; cbn [zstep].
  - rewrite z_init_alt. destruct (z_init_pops app fl) as [[k|] fl']; [cbn; intros [<-|[]]; auto | apply A].
  - apply A.
  - rewrite z_old_alt. destruct (m <? N.of_nat (length d))%N; [|apply (P (fun d' => ZOld keys closed ts d'))].
    destruct (npops 4 fl) as [[[|j]|] fl'].
    + apply (L (fun d' => ZOld keys closed (now + fst r) d')).
    + apply (L (fun d' => ZOld keys closed ts d')).
    + apply (P (fun d' => ZCur keys (closed ++ [d]) (now + fst r) d')).
Qed.

(* (3) the stream is the concatenation of a subsequence of the records (no duplication, no reordering); each missing
   record is one reported EWrite: #missing = #EWrite <= #reported errors (the other reports are ELogFile: a failed
   step of a rotation, the record of that call was kept) *)
Theorem ts_loss_is_reported_spec app m : forall recs now st fl,
  let '(st', e, _) := simts_st app m now st fl recs in
  exists kept, Subseq kept (List.map snd recs) /\ zstream st' = zstream st ++ concat kept
    /\ length recs = length kept + nlost e /\ nlost e <= length e
    /\ (forall c, In c e -> c = EWrite \/ c = ELogFile).
Proof.
  exact (loss_is_reported zst (zstep app m) zstream (simts_st app m) (tracez app m) (fun _ _ _ => eq_refl) (fun _ _ _ _ _ => eq_refl)
           (fun _ _ _ => eq_refl) (fun _ _ _ _ _ => eq_refl)
           (zstep_ok_all app m) (zstep_codes app m)).
Qed.

(* ------------------------------------------------------------------ the keys, for every oracle *)
(* the files that are closed for good (in the state ZOld the file of the last key still grows) *)
Definition z_done (st : zst) : list bytes :=
  match st with ZInit _ => [] | ZCur _ closed _ _ => closed | ZOld _ closed _ _ => closed end.

(* the state is well-formed at the second `now`: the keys are those of keys_ok (seconds non-decreasing, within one second
   the positions 0, 1, 2, ...: all keys - all names - different), all in [lo, ts]; ts in [lo, now] *)
Definition z_ok (lo now : Z) (st : zst) : Prop :=
  match st with
  | ZInit None => True
  | ZInit (Some t) => (lo <= t <= now)%Z
  | ZCur keys closed ts _ =>
    length keys = length closed /\ keys_ok keys /\ (forall k, In k keys -> (lo <= fst k <= ts)%Z) /\ (lo <= ts <= now)%Z
  | ZOld keys closed ts _ =>
    length keys = S (length closed) /\ keys_ok keys /\ (forall k, In k keys -> (lo <= fst k <= ts)%Z) /\ (lo <= ts <= now)%Z
  end.

(* what one step does to the files: keys and closed files are only extended (a closed file keeps key and content) *)
Definition zextends (st st' : zst) : Prop :=
  (exists xk, z_keys st' = z_keys st ++ xk) /\ (exists xc, z_done st' = z_done st ++ xc).

Lemma zextends_eq st st' : z_keys st' = z_keys st -> z_done st' = z_done st -> zextends st st'.
Proof. intros E1 E2. split; exists []; rewrite app_nil_r; assumption. Qed.
Lemma zextends_refl st : zextends st st.
Proof. apply zextends_eq; reflexivity. Qed.
Lemma zextends_trans a b c : zextends a b -> zextends b c -> zextends a c.
Proof.
  intros [[k1 S2] [c1 S3]] [[k2 I2] [c2 I3]].
  split; [exists (k1 ++ k2); rewrite I2, S2, app_assoc; reflexivity | exists (c1 ++ c2); rewrite I3, S3, app_assoc; reflexivity].
Qed.

Lemma z_ok_keys lo now st : z_ok lo now st -> keys_ok (z_keys st) /\ (forall k, In k (z_keys st) -> (lo <= fst k <= now)%Z).
Proof.
  destruct st as [[t|]|keys closed ts d|keys closed ts d]; cbn [z_ok z_keys].
  - intros _. split; [constructor | intros k []].
  - intros _. split; [constructor | intros k []].
  - intros [_ [K [R T]]]. split; [exact K|]. intros k Ik. specialize (R k Ik). lia.
  - intros [_ [K [R T]]]. split; [exact K|]. intros k Ik. specialize (R k Ik). lia.
Qed.

Lemma z_active_keys m lo now now' keys closed ts d b fl : (lo <= now <= now')%Z ->
  let st' := fst (fst (z_active m now' keys closed ts d b fl)) in
  (z_ok lo now (ZCur keys closed ts d) -> z_ok lo now' st') /\ zextends (ZCur keys closed ts d) st'.
Proof.
  intros Hn. rewrite z_active_alt.
  assert (Same : forall d', (z_ok lo now (ZCur keys closed ts d) -> z_ok lo now' (ZCur keys closed ts d'))
                            /\ zextends (ZCur keys closed ts d) (ZCur keys closed ts d')).
  { intros d'. split; [|apply zextends_eq; reflexivity]. intros [L [K [R T]]]. split; [exact L|]. split; [exact K|]. split; [exact R | lia]. }
  destruct (m <? N.of_nat (length d))%N.
  - destruct (npops 4 fl) as [[[|j]|] fl'].
    + destruct (s_write d b fl') as [[d' e] fl'']. cbn [fst]. split.
      * intros [L [K [R T]]]. split; [rewrite app_length, L; cbn [length]; lia|].
        split; [apply ko_snoc; [exact K | intros k Ik; specialize (R k Ik); lia]|].
        split; [|lia]. intros k Ik. apply in_app_or in Ik. destruct Ik as [Ik|[<-|[]]]; [specialize (R k Ik); lia | cbn [fst]; lia].
      * split; [eexists; reflexivity | exists []; cbn [z_done]; rewrite app_nil_r; reflexivity].
    + destruct (s_write d b fl') as [[d' e] fl'']. apply Same.
    + destruct (s_write [] b fl') as [[d' e] fl'']. cbn [fst]. split.
      * intros [L [K [R T]]]. split; [rewrite !app_length, L; reflexivity|].
        split; [apply ko_snoc; [exact K | intros k Ik; specialize (R k Ik); lia]|].
        split; [|lia]. intros k Ik. apply in_app_or in Ik. destruct Ik as [Ik|[<-|[]]]; [specialize (R k Ik); lia | cbn [fst]; lia].
      * split; eexists; reflexivity.
  - destruct (s_write d b fl) as [[d' e] fl'']. apply Same.
Qed.

Lemma z_old_keys m lo now now' keys closed ts d b fl : (lo <= now <= now')%Z ->
  let st' := fst (fst (z_old m now' keys closed ts d b fl)) in
  (z_ok lo now (ZOld keys closed ts d) -> z_ok lo now' st') /\ zextends (ZOld keys closed ts d) st'.
Proof.
  intros Hn. rewrite z_old_alt.
  assert (Same : forall t d', (ts <= t <= now')%Z -> (z_ok lo now (ZOld keys closed ts d) -> z_ok lo now' (ZOld keys closed t d'))
                            /\ zextends (ZOld keys closed ts d) (ZOld keys closed t d')).
  { intros t d' Ht. split; [|apply zextends_eq; reflexivity]. intros [L [K [R T]]]. split; [exact L|]. split; [exact K|].
    split; [intros k Ik; specialize (R k Ik); lia | lia]. }
  assert (Hts : z_ok lo now (ZOld keys closed ts d) -> (ts <= now')%Z) by (intros [_ [_ [_ T]]]; lia).
  destruct (m <? N.of_nat (length d))%N.
  - destruct (npops 4 fl) as [[[|j]|] fl'].
    + destruct (s_write d b fl') as [[d' e] fl'']. cbn [fst]. split; [|apply zextends_eq; reflexivity].
      intros Z0. pose proof (Hts Z0). apply (Same now' d'); [lia | exact Z0].
    + destruct (s_write d b fl') as [[d' e] fl'']. cbn [fst]. split; [|apply zextends_eq; reflexivity].
      intros Z0. pose proof (Hts Z0). apply (Same ts d'); [lia | exact Z0].
    + destruct (s_write [] b fl') as [[d' e] fl'']. cbn [fst]. split.
      * intros [L [K [R T]]]. split; [rewrite app_length, L; cbn [length]; lia|]. split; [exact K|].
        split; [intros k Ik; specialize (R k Ik); lia | lia].
      * split; [exists []; cbn [z_keys]; rewrite app_nil_r; reflexivity | eexists; reflexivity].
  - destruct (s_write d b fl) as [[d' e] fl'']. cbn [fst]. split; [|apply zextends_eq; reflexivity].
    intros Z0. pose proof (Hts Z0). apply (Same ts d'); [lia | exact Z0].
Qed.

Lemma zstep_keys app m lo now st fl r : (lo <= now)%Z -> (0 <= fst r)%Z ->
  let st' := fst (fst (zstep app m now st fl r)) in
  (z_ok lo now st -> z_ok lo (now + fst r) st') /\ zextends st st'.
Proof.
  intros Hlo Hdt. assert (Hn : (lo <= now <= now + fst r)%Z) by lia.
  destruct st as [created|keys closed ts d|keys closed ts d]; cbn [zstep];
    [|apply (z_active_keys m lo now); exact Hn | apply (z_old_keys m lo now); exact Hn].
  rewrite z_init_alt. destruct (z_init_pops app fl) as [[k|] fl'].
  - cbn [fst]. split; [|apply zextends_eq; reflexivity]. destruct k.
    + unfold z_first. destruct created as [t0|]; cbn [z_ok]; lia.
    + destruct created as [t0|]; cbn [z_ok]; [lia | auto].
  - (* the first record of a fresh writer never rotates *)
    rewrite z_active_alt. change (N.of_nat (length (@nil N))) with 0%N.
    assert (E : (m <? 0)%N = false) by (apply N.ltb_ge; apply N.le_0_l). rewrite E.
    destruct (s_write [] (snd r) fl') as [[d' e] fl1]. cbn [fst]. split; [|apply zextends_eq; reflexivity].
    intros Z0. cbn [z_ok]. split; [reflexivity|]. split; [constructor|]. split; [intros k []|].
    unfold z_first. destruct created as [t0|]; cbn [z_ok] in Z0; lia.
Qed.

(* for EVERY oracle: the keys of the closed files are those of keys_ok - all different, so no name is used twice and no
   file is overwritten; each key carries the second at which its file was started -, and keys and closed files are only
   extended *)
Theorem simts_keys app m lo : forall recs now st fl, (lo <= now)%Z -> ticks_ok recs ->
  let st' := fst (fst (simts_st app m now st fl recs)) in
  (z_ok lo now st -> z_ok lo (now + telapsed recs) st') /\ zextends st st'.
Proof.
  exact (sim_keys zst (zstep app m) (simts_st app m) (fun _ _ _ => eq_refl) (fun _ _ _ _ _ => eq_refl) z_ok zextends
           zextends_refl zextends_trans (zstep_keys app m) lo).
Qed.

Lemma z_ok_init lo now : z_ok lo now (ZInit None).
Proof. exact I. Qed.

(* ------------------------------------------------------------------ (4) recovery *)
(* the view of the fault-free development (NumRun.aview): closed contents and the content of the writer's file *)
Definition zaview (st : zst) : aview :=
  match st with ZInit _ => None | ZCur _ closed _ d => Some (closed, d) | ZOld _ closed _ d => Some (closed, d) end.
(* in the state ZOld a rotation is pending *)
Definition zpending_ok (m : N) (st : zst) : Prop :=
  match st with ZOld _ _ _ d => (m <? N.of_nat (length d))%N = true | _ => True end.

Lemma zstep_pending app m now st fl r : zpending_ok m st -> zpending_ok m (fst (fst (zstep app m now st fl r))).
Proof.
  assert (A : forall nw keys closed ts d fl0, zpending_ok m (fst (fst (z_active m nw keys closed ts d (snd r) fl0)))).
  { intros nw keys closed ts d fl0. rewrite z_active_alt. destruct (m <? N.of_nat (length d))%N eqn:Em.
    - destruct (npops 4 fl0) as [[[|j]|] fl'].
      + pose proof (s_write_pending d (snd r) fl') as L. destruct (s_write d (snd r) fl') as [[d' e] fl'']. cbn [fst zpending_ok]. lia.
      + destruct (s_write d (snd r) fl') as [[d' e] fl'']. exact I.
      + destruct (s_write [] (snd r) fl') as [[d' e] fl'']. exact I.
    - destruct (s_write d (snd r) fl0) as [[d' e] fl'']. exact I. }
  intros P. destruct st as [created|keys closed ts d|keys closed ts d]; cbn [zstep].
  - rewrite z_init_alt. destruct (z_init_pops app fl) as [[k|] fl']; [exact I | apply A].
  - apply A.
  - cbn [zpending_ok] in P. rewrite z_old_alt, P.
    destruct (npops 4 fl) as [[[|j]|] fl'].
    + pose proof (s_write_pending d (snd r) fl') as L. destruct (s_write d (snd r) fl') as [[d' e] fl'']. cbn [fst zpending_ok]. lia.
    + pose proof (s_write_pending d (snd r) fl') as L. destruct (s_write d (snd r) fl') as [[d' e] fl'']. cbn [fst zpending_ok]. lia.
    + destruct (s_write [] (snd r) fl') as [[d' e] fl'']. exact I.
Qed.

Lemma zcur_pending m st : (exists keys closed ts d, st = ZCur keys closed ts d) -> zpending_ok m st.
Proof. intros [keys [closed [ts [d ->]]]]. exact I. Qed.

(* one record when no more failures come: nothing is reported, the record is appended, a rotation that is due is carried
   out (also one that failed before, or was left half done), the writer is on rCURRENT, the state is that of the
   fault-free size rule *)
Lemma zstep_recovered app m now st fl r : all_false fl -> zpending_ok m st ->
  let '(st', e, fl') := zstep app m now st fl r in
  e = [] /\ all_false fl' /\ (exists keys closed ts d, st' = ZCur keys closed ts d)
  /\ zaview st' = a_step (zaview st) (OWrite (snd r)) (m <? N.of_nat (length (cur_of (zaview st))))%N.
Proof.
  intros Hf P. set (b := snd r).
  assert (A : forall nw keys closed ts d fl0, all_false fl0 ->
     let '(st', e, fl') := z_active m nw keys closed ts d b fl0 in
     e = [] /\ all_false fl' /\ (exists keys' closed' ts' d', st' = ZCur keys' closed' ts' d')
     /\ zaview st' = a_step (Some (closed, d)) (OWrite b) (m <? N.of_nat (length d))%N).
  { intros nw keys closed ts d fl0 H0. rewrite z_active_alt. cbn [a_step].
    destruct (m <? N.of_nat (length d))%N eqn:Em.
    - destruct (npops_all_false 4 fl0 H0) as [E1 E2]. destruct (npops 4 fl0) as [o fl']. cbn [fst snd] in *. subst o.
      pose proof (s_write_all_false [] b fl' E2) as S. destruct (s_write [] b fl') as [[d' e] fl'']. destruct S as [-> [-> S3]].
      split; [reflexivity|]. split; [exact S3|]. split; [do 4 eexists; reflexivity | reflexivity].
    - pose proof (s_write_all_false d b fl0 H0) as S. destruct (s_write d b fl0) as [[d' e] fl1]. destruct S as [-> [-> S3]].
      split; [reflexivity|]. split; [exact S3|]. split; [do 4 eexists; reflexivity | reflexivity]. }
  destruct st as [created|keys closed ts d|keys closed ts d]; cbn [zstep zaview cur_of]; fold b.
  - rewrite z_init_alt. destruct (init_pops_all_false ((if app then 0 else 3) + 1) app fl Hf) as [E1 E2]. fold (z_init_pops app fl) in E1, E2.
    destruct (z_init_pops app fl) as [o fl']. cbn [fst snd] in *. subst o.
    pose proof (A (now + fst r)%Z [] [] (z_first (now + fst r) created) [] fl' E2) as S.
    destruct (z_active m (now + fst r) [] [] (z_first (now + fst r) created) [] b fl') as [[st' e] fl'']. exact S.
  - apply (A (now + fst r)%Z keys closed ts d fl Hf).
  - cbn [zpending_ok] in P. rewrite z_old_alt, P. cbn [a_step].
    destruct (npops_all_false 4 fl Hf) as [E1 E2]. destruct (npops 4 fl) as [o fl']. cbn [fst snd] in *. subst o.
    pose proof (s_write_all_false [] b fl' E2) as S. destruct (s_write [] b fl') as [[d' e] fl'']. destruct S as [-> [-> S3]].
    split; [reflexivity|]. split; [exact S3|]. split; [do 4 eexists; reflexivity | reflexivity].
Qed.

(* (4) Once no more failures come (the rest of the oracle is empty or all `false`), nothing more is reported, every
   further record is in the stream, and rotation works again: the contents develop exactly by the fault-free size rule
   NumRun.s_run (rotate before a record iff the file holds more than m bytes) - a rotation whose steps failed, or that was
   left half done (state ZOld), is carried out / completed with the next record; after it rCURRENT exists again *)
Theorem ts_recovery_st app m t0 fl recs1 recs2 : ticks_ok (recs1 ++ recs2) ->
  let '(st1, e1, fl1) := simts_st app m t0 (ZInit None) fl recs1 in
  all_false fl1 ->
  let '(st2, e2, fl2) := simts_st app m t0 (ZInit None) fl (recs1 ++ recs2) in
  e2 = e1 /\ zstream st2 = zstream st1 ++ concat (List.map snd recs2)
  /\ zaview st2 = s_run m (zaview st1) (tops recs2)
  /\ zextends st1 st2
  /\ z_ok t0 (t0 + telapsed (recs1 ++ recs2)) st2
  /\ (recs2 <> [] -> exists keys closed ts d, st2 = ZCur keys closed ts d).
Proof.
  intros Ht.
  exact (recovery zst (zstep app m) zstream (simts_st app m) (tracez app m) (fun _ _ _ => eq_refl) (fun _ _ _ _ _ => eq_refl)
           (fun _ _ _ => eq_refl) (fun _ _ _ _ _ => eq_refl) (zstep_ok_all app m)
           z_ok zextends zextends_refl zextends_trans (zstep_keys app m)
           m zaview (zpending_ok m) (fun st => exists keys closed ts d, st = ZCur keys closed ts d) (zstep_pending app m) (zcur_pending m)
           (zstep_recovered app m) t0 (ZInit None) fl recs1 recs2 Ht I (z_ok_init t0 t0)).
Qed.

Print Assumptions ts_lost_only_around_failures_spec.
Print Assumptions ts_loss_is_reported_spec.
Print Assumptions simts_keys.
Print Assumptions ts_recovery_st.
