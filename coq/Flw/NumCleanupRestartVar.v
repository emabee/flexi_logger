(* Numbers naming with a cleanup strategy: sequences of runs on one directory where EVERY RUN HAS ITS OWN CLEANUP STRATEGY
   (KNever included), part 1: one run.  The directory between two writers is kreader_view c f closed cur lo mid with a
   window (lo, mid) that is no longer a function of the number of closed files: a cleanup with limits (n, m) at L closed
   files moves it to (max lo (L - (n+m)), max mid (L - n)) - it never moves back, so a strategy with larger limits
   does not bring back anything, and an archive never becomes a plain file again.
   What is known of the window: A and B are lower bounds of n + m and of n over all strategies used (1 <= A: every
   strategy keeps at least one closed file - otherwise the numbering starts again and numbers are reused, see
   NumCleanupRestartEx.v), then at least min(L, A) closed files survive, at least min(L, B) of them plain;
   and after a run that has written something, its own limits hold (at most n plain, at most n + m in all). *)
Require Import FL.Base.Bytes FL.Fs.Fs FL.Names.FileSpec FL.Flw.Model FL.Flw.ModelFacts FL.Flw.NumFs FL.Flw.NumInv
  FL.Flw.Run FL.Flw.NumRun FL.Flw.CleanupFacts FL.Flw.NumCleanupNames FL.Flw.NumCleanupStep FL.Flw.NumCleanupRun
  FL.Flw.QuietFacts FL.Flw.GenCleanupRun FL.Flw.NumRestart FL.Flw.NumKill FL.Flw.NumKillRestart FL.Flw.NumCleanupKillDir
  FL.Flw.NumCleanupKillStep FL.Flw.NumCleanupKill FL.Flw.NumCleanupKillRestart FL.Flw.NumCleanupRestart.
From Coq Require Import Lia.
Open Scope nat_scope.

(* ------------------------------------------------------------------ the window *)
(* the strategy keeps at least A closed files, at least B of them plain (KNever keeps everything) *)
Definition kok (A B : nat) (k : cleanup) : Prop :=
  match klim k with None => True | Some (n, m) => A <= n + m /\ B <= n end.
(* at least min(L, A) closed files are there, at least min(L, B) of them plain *)
Definition WinOK (A B lo mid L : nat) : Prop := Nat.min L A <= L - lo /\ Nat.min L B <= L - mid.
(* the limits of the strategy are respected *)
Definition kup (k : cleanup) (lo mid L : nat) : Prop :=
  match klim k with None => True | Some (n, m) => L - mid <= n /\ L - lo <= n + m end.

Lemma knew_lo_ge k lo L : lo <= knew_lo k lo L.
Proof. unfold knew_lo. destruct (klim k) as [[n m]|]; lia. Qed.
Lemma knew_mid_ge k mid L : mid <= knew_mid k mid L.
Proof. unfold knew_mid. destruct (klim k) as [[n m]|]; lia. Qed.
Lemma kup_knew k lo mid L : kup k (knew_lo k lo L) (knew_mid k mid L) L.
Proof. unfold kup, knew_lo, knew_mid. destruct (klim k) as [[n m]|]; lia. Qed.
(* one bound at a time: together, the two minima and the two maxima make lia's case analysis slow *)
Lemma win_knew L A x lo : A <= x -> Nat.min L A <= L - lo -> Nat.min L A <= L - Nat.max lo (L - x).
Proof. lia. Qed.
Lemma winok_knew A B k lo mid L : kok A B k -> WinOK A B lo mid L -> WinOK A B (knew_lo k lo L) (knew_mid k mid L) L.
Proof.
  unfold kok, WinOK, knew_lo, knew_mid. destruct (klim k) as [[n m]|]; [|tauto].
  intros [HA HB] [X1 X2]. split; apply win_knew; assumption.
Qed.
Lemma winok_S A B lo mid L : lo <= L -> mid <= L -> WinOK A B lo mid L -> WinOK A B lo mid (S L).
Proof. unfold WinOK. lia. Qed.
Lemma winok_based A B lo mid L : 1 <= A -> WinOK A B lo mid L -> lo < L \/ L = 0.
Proof. unfold WinOK. lia. Qed.

(* ------------------------------------------------------------------ the directory between two writers *)
Definition kdir_view_v (A B : nat) (c : config) (f : fs) (v : aview) (lo mid : nat) : Prop :=
  match v with
  | None => names f = [] /\ inodes f = [] /\ lo = 0 /\ mid = 0
  | Some (cl, cu) => fs_wf f /\ kreader_view c f cl cu lo mid /\ WinOK A B lo mid (length cl)
  end.
Definition IdleV (A B : nat) (c : config) (x : sys) (v : aview) (lo mid : nat) : Prop :=
  idle_sys (fun f => kdir_view_v A B c f v lo mid) x.
Definition PreV (A B : nat) (c : config) (x : sys) (v : aview) (lo mid : nat) : Prop :=
  pre_sys c (fun f => kdir_view_v A B c f v lo mid) x.

Lemma kdir_view_v_spec A B c c' f v lo mid : c_spec c = c_spec c' -> kdir_view_v A B c f v lo mid -> kdir_view_v A B c' f v lo mid.
Proof.
  intros E. destruct v as [[cl cu]|]; cbn [kdir_view_v]; [|tauto].
  intros (W & R & X). split; [exact W|]. split; [exact (kreader_view_spec c c' f cl cu _ _ E R) | exact X].
Qed.
Lemma idlev_spec A B c c' x v lo mid : c_spec c = c_spec c' -> IdleV A B c x v lo mid -> IdleV A B c' x v lo mid.
Proof.
  intros E (H1 & H2 & H3 & H4 & H5). split; [exact H1|]. split; [exact H2|]. split; [exact H3|]. split; [exact H4|].
  exact (kdir_view_v_spec A B c c' _ v lo mid E H5).
Qed.

Lemma empty_kst c f : names f = [] -> kst c f f [] None 0 0 None.
Proof.
  intros Hn. destruct (empty_view c f Hn) as [W _].
  assert (E : forall y, file_of f y = None) by (intros y; apply file_of_none; apply lookup_empty; exact Hn).
  constructor; [exact W | unfold nodup_names, dir_names; rewrite Hn; constructor | | apply same_at_refl].
  constructor.
  - cbn [length]. lia.
  - cbn [length]. intros i Hi. lia.
  - intros i Hi. lia.
  - apply E.
  - exact I.
  - intros x fl Hx. rewrite E in Hx. discriminate.
Qed.

Section OneRunV.
Variables (A B : nat) (c : config) (crit : criterion) (k : cleanup).
Hypothesis HA : 1 <= A.
Hypothesis Hcfg : numkcfg c crit k.
Hypothesis Hkok : kok A B k.
Hypothesis Hsfx : sfx_ok (c_spec c).

Lemma kside_v L : kside c k L.
Proof. unfold kside. destruct (klim k); [exact Hsfx | exact I]. Qed.

(* ------------------------------------------------------------------ one rotation, any window *)
Lemma mount_next_rotates_v w wr closed lo mid roll force :
  NumKInv c w wr closed lo mid ->
  force || rotation_necessary w roll = true ->
  exists w' wr' roll',
    mount_next c w (Active (Some (mk_rsk k (NSNumR (N.of_nat (length closed))) roll)) wr (cname c)) force
      = (Ok tt, w', Active (Some (mk_rsk k (NSNumR (N.of_nat (length (closed ++ [cur_view w wr])))) roll')) wr' (cname c))
    /\ NumKInv c w' wr' (closed ++ [cur_view w wr]) (knew_lo k lo (S (length closed))) (knew_mid k mid (S (length closed)))
    /\ cur_view w' wr' = [] /\ roll_size_ok roll' 0 /\ same_env w w'.
Proof.
  intros I Hnec. pose proof Hcfg as (Hrot & Hts & Hlink & Has & Hbg).
  pose proof I as [Q W Hc Hcp KD Hwr Hcap].
  destruct (kdir_rotate c (wfs w) closed _ _ (wino wr) (wpend wr) (wnow w) W KD Hc Hcp) as (Ht & f1 & Er & L1c & R).
  cbn zeta in R. destruct R as (W3 & L3c & Inew & KD3).
  pose proof (p_rename_quiet w (cname c) (rname c (length closed)) Q) as PR. rewrite Er in PR.
  destruct PR as [w1 [Epr [F1 S1]]].
  assert (Ecn : forall w0, name_of c w0 (Some cur_infix) = cname c) by (intros w0; apply name_of_fixed; exact Hts).
  assert (Elen : length (closed ++ [cur_view w wr]) = S (length closed)) by (rewrite app_length; cbn [length]; lia).
  (* the naming step: rCURRENT gets the next number *)
  assert (NS : next_infix c w (NSNumR (N.of_nat (length closed))) cur_infix w1 (NSNumR (N.of_nat (length (closed ++ [cur_view w wr]))))).
  { exists (N.of_nat (length (closed ++ [cur_view w wr]))). split; [|split; reflexivity].
    unfold index_for_rcurrent. rewrite Ecn, (name_of_fixed c w) by assumption.
    change (as_name (c_spec c) (fixed0 c) (Some (number_infix (N.of_nat (length closed))))) with (rname c (length closed)).
    rewrite Epr, Elen. replace (N.of_nat (S (length closed))) with (N.of_nat (length closed) + 1)%N by lia. reflexivity. }
  pose proof (mount_next_fresh c w (mk_rsk k (NSNumR (N.of_nat (length closed))) roll) wr (cname c) force
                _ w1 _ Hnec NS (proj1 S1) Hlink) as M.
  rewrite Ecn, F1, (proj1 (same_env_clock _ _ S1)) in M. specialize (M L1c). cbv zeta in M. unfold flushed, cleanup_or_queue in M.
  rewrite set_fs_set_fs in M. cbn [mk_rsk rs_roll rs_cleanup rs_bg ns_filter ns_writes_direct wfs set_fs] in M. rewrite M. clear M.
  set (f3 := append_ino (fst (create_file f1 (cname c) 0%N (wnow w))) (wino wr) (wpend wr)) in *.
  set (new := snd (create_file f1 (cname c) 0%N (wnow w))) in *.
  set (wr' := {| wino := length (inodes f1); wpend := []; wcap := c_cap c |}).
  assert (I3 : NumKInv c (set_fs w1 f3) wr' (closed ++ [cur_view w wr]) lo mid).
  { constructor; cbn [wfs set_fs].
    - apply S1.
    - exact W3.
    - exact L3c.
    - change (wino wr') with new. rewrite Inew. split; reflexivity.
    - exact KD3.
    - apply wr_ok_nil.
    - reflexivity. }
  destruct (cleanup_k c crit k (set_fs w1 f3) wr' _ _ _ Hcfg (kside_v _) I3) as (w4 & Ecl & S4 & I4 & V4).
  rewrite Ecl. rewrite Elen in I4.
  exists w4, wr', (reset_size_and_date (set_fs w1 f3) roll (cname c)).
  split; [reflexivity|]. split; [exact I4|].
  split; [rewrite V4; exact (cur_view_fresh (set_fs w1 f3) new _ _ Inew)|].
  split. { destruct roll; cbn; auto. }
  eapply same_env_trans; [exact S1|]. eapply same_env_trans; [apply same_env_set_fs; apply S1 | exact S4].
Qed.

(* ---- a write on an active writer ---- *)
Lemma write_active_v w wr closed lo mid roll b :
  NumKInv c w wr closed lo mid -> roll_size_ok roll (length (cur_view w wr)) ->
  let rot := rotation_necessary w roll in
  exists w' wr' roll' closed' lo' mid',
    write_buffer (st_ofk c k (length closed) roll wr) w b = (Ok tt, w', st_ofk c k (length closed') roll' wr', rot)
    /\ NumKInv c w' wr' closed' lo' mid'
    /\ roll_size_ok roll' (length (cur_view w' wr')) /\ same_env w w'
    /\ (closed', cur_view w' wr') = (if rot then (closed ++ [cur_view w wr], b) else (closed, cur_view w wr ++ b))
    /\ (lo', mid') = (if rot then (knew_lo k lo (S (length closed)), knew_mid k mid (S (length closed))) else (lo, mid)).
Proof.
  intros I Hsz rot.
  unfold write_buffer, st_ofk. cbn [f_cfg f_inner f_poisoned mk_rsk rs_roll]. fold rot.
  assert (M : exists w1 wr1 roll1 closed1 lo1 mid1,
            mount_next c w (Active (Some (mk_rsk k (NSNumR (N.of_nat (length closed))) roll)) wr (cname c)) false
            = (Ok tt, w1, Active (Some (mk_rsk k (NSNumR (N.of_nat (length closed1))) roll1)) wr1 (cname c))
            /\ NumKInv c w1 wr1 closed1 lo1 mid1
            /\ roll_size_ok roll1 (length (cur_view w1 wr1)) /\ same_env w w1
            /\ (closed1, cur_view w1 wr1) = (if rot then (closed ++ [cur_view w wr], []) else (closed, cur_view w wr))
            /\ (lo1, mid1) = (if rot then (knew_lo k lo (S (length closed)), knew_mid k mid (S (length closed))) else (lo, mid))).
  { destruct rot eqn:Er.
    - destruct (mount_next_rotates_v w wr closed lo mid roll false I) as [w1 [wr1 [roll1 [E [I1 [V1 [Z1 S1]]]]]]]; [exact Er|].
      exists w1, wr1, roll1, (closed ++ [cur_view w wr]), (knew_lo k lo (S (length closed))), (knew_mid k mid (S (length closed))).
      rewrite V1. split; [exact E|]. split; [exact I1|]. split; [exact Z1|]. split; [exact S1|]. split; reflexivity.
    - exists w, wr, roll, closed, lo, mid. split.
      + unfold mount_next. cbn [mk_rsk rs_roll orb]. unfold rot in Er. rewrite Er. reflexivity.
      + split; [exact I|]. split; [exact Hsz|]. split; [apply same_env_refl; apply I|]. split; reflexivity. }
  destruct M as (w1 & wr1 & roll1 & closed1 & lo1 & mid1 & E & I1 & Z1 & S1 & V1 & X1).
  rewrite E.
  destruct (w_write_quiet w1 wr1 b (nk_quiet _ _ _ _ _ _ I1) (nk_wr _ _ _ _ _ _ I1)) as [w2 [wr2 [fl [Ew [S2 [F2 [Ei [Ec [Ep Hok]]]]]]]]].
  rewrite Ew.
  destruct (numkinv_append c w1 w2 wr1 wr2 closed1 _ _ fl I1 F2 S2 Ei Ec Hok) as [I2 C2].
  exists w2, wr2, (increase_size roll1 (N.of_nat (length b))), closed1, lo1, mid1.
  assert (V2 : cur_view w2 wr2 = cur_view w1 wr1 ++ b).
  { unfold cur_view. rewrite C2, <- !app_assoc, Ep. reflexivity. }
  split; [reflexivity|]. split; [exact I2|].
  split. { rewrite V2, app_length. apply roll_size_increase. exact Z1. }
  split; [eapply same_env_trans; eassumption|].
  split; [|exact X1]. rewrite V2. destruct rot; injection V1 as -> ->; reflexivity.
Qed.

(* ------------------------------------------------------------------ initialisation on a directory with any window *)
Lemma initialize_v w closed ocur lo mid :
  quiet w -> kst c (wfs w) (wfs w) closed ocur lo mid None ->
  (lo < length closed \/ length closed = 0) -> (N.of_nat (length closed) <= u32_max)%N ->
  exists w' wr roll,
    initialize c w = (Ok (Active (Some (mk_rsk k (NSNumR (N.of_nat (length (fst (init_view_k c closed ocur))))) roll)) wr (cname c)), w')
    /\ NumKInv c w' wr (fst (init_view_k c closed ocur))
         (knew_lo k lo (length (fst (init_view_k c closed ocur)))) (knew_mid k mid (length (fst (init_view_k c closed ocur))))
    /\ cur_view w' wr = snd (init_view_k c closed ocur)
    /\ roll_size_ok roll (length (snd (init_view_k c closed ocur)))
    /\ same_env w w'.
Proof.
  intros Q K Hlo HL. pose proof Hcfg as (Hrot & Hts & Hlink & Has & Hbg).
  (* the naming step: index, rename *)
  assert (N1 : exists w1 cl1 oc1,
            init_naming c w NNumbers = (Ok (NSNumR (N.of_nat (length cl1)), cur_infix), w1) /\ same_env w w1
            /\ kst c (wfs w1) (wfs w1) cl1 oc1 lo mid None
            /\ (cl1, ocb oc1) = init_view_k c closed ocur /\ (oc1 <> None -> c_append c = true)).
  { unfold init_naming, index_for_rcurrent. rewrite (init_listing c crit k Hcfg Hsfx w closed ocur lo mid None Q K Hlo HL).
    unfold init_view_k, init_view_o. cbn [fst snd].
    destruct (c_append c) eqn:Happ; cbn [negb bind].
    - exists w, closed, ocur. split; [reflexivity|]. split; [apply same_env_refl; exact Q|]. split; [exact K|].
      split; [destruct ocur; reflexivity | auto].
    - rewrite !(name_of_fixed c w) by assumption. fold (nm c cur_infix) (nm c (number_infix (N.of_nat (length closed)))).
      fold (cname c) (rname c (length closed)).
      pose proof (p_rename_quiet w (cname c) (rname c (length closed)) Q) as PR.
      destruct ocur as [cu|].
      + destruct (xdir_cur_lookup c _ closed cu lo mid None (ks_x _ _ _ _ _ _ _ _ K)) as (j & Lj & _).
        destruct (rename_spec (wfs w) (cname c) (rname c (length closed)) j (fun E => rname_not_cname c _ (eq_sym E)) Lj)
          as (f1 & Er & _).
        rewrite Er in PR. destruct PR as (w1 & Epr & F1 & S1). rewrite Epr. cbn [bind].
        exists w1, (closed ++ [cu]), None.
        assert (EL : length (closed ++ [cu]) = S (length closed)) by (rewrite app_length; cbn [length]; lia).
        split. { rewrite EL. replace (N.of_nat (length closed) + 1)%N with (N.of_nat (S (length closed))) by lia. reflexivity. }
        split; [exact S1|]. split; [rewrite F1; exact (kst_rename_cur c _ _ _ _ _ _ _ _ K Er)|].
        split; [reflexivity | congruence].
      + assert (Lc : lookup (wfs w) (cname c) = None) by (apply file_of_none; exact (xd_cur _ _ _ _ _ _ _ (ks_x _ _ _ _ _ _ _ _ K))).
        rewrite rename_none in PR by exact Lc. rewrite PR. cbn [bind].
        exists w, closed, None. split; [reflexivity|]. split; [apply same_env_refl; exact Q|]. split; [exact K|].
        split; [reflexivity | congruence]. }
  destruct N1 as (w1 & cl1 & oc1 & En & S1 & K1 & Ev & Happ1).
  (* the current file is opened *)
  assert (O2 : exists w2 ino fl,
            open_log_file c w1 (Some cur_infix) = (Ok ({| wino := ino; wpend := []; wcap := c_cap c |}, cname c), w2) /\ same_env w1 w2
            /\ kst c (wfs w2) (wfs w2) cl1 (Some (ocb oc1)) lo mid None /\ lookup (wfs w2) (cname c) = Some ino
            /\ file_of (wfs w2) (cname c) = Some fl /\ fdata fl = ocb oc1).
  { unfold open_log_file. rewrite (name_of_fixed c w1) by assumption. fold (nm c cur_infix) (cname c).
    unfold do_symlink. rewrite Hlink. pose proof (proj1 S1) as Q1.
    destruct oc1 as [cu|].
    - rewrite (Happ1 ltac:(discriminate)).
      destruct (xdir_cur_lookup c _ cl1 cu lo mid None (ks_x _ _ _ _ _ _ _ _ K1)) as (j & Lj & [Gj Dj] & Cj).
      assert (Fo : file_of (wfs w1) (cname c) = Some (inode (wfs w1) j)) by (unfold file_of; rewrite Lj; reflexivity).
      assert (D1 : match file_of (wfs w1) (cname c) with Some fl => fdir fl = false | None => True end) by (rewrite Fo; exact Dj).
      destruct (p_open_quiet w1 (cname c) true Q1 D1) as [w2 [Eop [F2 S2]]]. rewrite Eop.
      assert (Eopen : open_append (wfs w1) (cname c) (wnow w1) = (wfs w1, j)) by (unfold open_append; rewrite Lj; reflexivity).
      rewrite Eopen in *. cbn [fst snd] in *.
      exists w2, j, (inode (wfs w1) j). split; [reflexivity|]. split; [exact S2|]. rewrite F2.
      split; [exact K1|]. split; [exact Lj|]. split; [exact Fo | exact Cj].
    - assert (Lc : lookup (wfs w1) (cname c) = None) by (apply file_of_none; exact (xd_cur _ _ _ _ _ _ _ (ks_x _ _ _ _ _ _ _ _ K1))).
      assert (D1 : match file_of (wfs w1) (cname c) with Some fl => fdir fl = false | None => True end).
      { unfold file_of. rewrite Lc. exact I. }
      destruct (p_open_quiet w1 (cname c) (c_append c) Q1 D1) as [w2 [Eop [F2 S2]]]. rewrite Eop.
      assert (Eopen : (if c_append c then open_append (wfs w1) (cname c) (wnow w1) else open_trunc (wfs w1) (cname c) 0%N (wnow w1))
                      = create_file (wfs w1) (cname c) 0%N (wnow w1)).
      { destruct (c_append c); [apply open_append_fresh | apply open_trunc_fresh]; exact Lc. }
      rewrite Eopen in *. clear Eopen.
      destruct (kst_create_cur c _ _ _ _ _ _ (wnow w1) K1) as (K2 & L2 & F2').
      exists w2, (length (inodes (wfs w1))), (fresh_file (wnow w1)). split; [reflexivity|]. split; [exact S2|]. rewrite F2.
      split; [exact K2|]. split; [exact L2|]. split; [exact F2' | reflexivity]. }
  destruct O2 as (w2 & ino & fl & Eo & S2 & K2 & L2 & Ff2 & Dfl).
  set (wr := {| wino := ino; wpend := []; wcap := c_cap c |}) in *.
  pose proof (proj1 S2) as Q2.
  (* the rotation state *)
  assert (RN : exists roll, roll_new w2 crit (c_append c) (cname c) = (Ok roll, w2) /\ roll_size_ok roll (length (ocb oc1))).
  { destruct (c_append c) eqn:Happ.
    - destruct (roll_new_append w2 crit (cname c) fl Q2 Ff2) as [roll [E [Z RS]]]. rewrite Dfl in Z. eauto.
    - assert (oc1 = None) by (destruct oc1; [exfalso; assert (false = true) by (apply Happ1; discriminate); discriminate | reflexivity]).
      subst oc1. destruct (roll_new_fresh w2 crit (cname c)) as [roll [E [Z RS]]]. eauto. }
  destruct RN as (roll & Ern & Z).
  (* the cleanup *)
  destruct (kst_numkinv c w2 (wfs w2) (wfs w2) wr cl1 lo mid (ocb oc1) Q2 K2 L2) as [I2 V2].
  { unfold wr_ok, wr. cbn. destruct (c_cap c); [lia | reflexivity]. } { reflexivity. } { reflexivity. }
  assert (I2' : NumKInv c w2 wr cl1 lo mid)
    by (apply (numkinv_env c (set_fs w2 (wfs w2))); [exact I2 | reflexivity | exact Q2]).
  assert (V2' : cur_view w2 wr = ocb oc1) by exact V2.
  destruct (cleanup_k c crit k w2 wr cl1 lo mid Hcfg (kside_v _) I2') as (w4 & Ec & S4 & I4 & V4).
  assert (Ecl : forall d, match k with KNever => (Ok tt, w2) | _ => cleanup_impl c w2 k (ns_filter (NSNumR (N.of_nat (length cl1)))) (if naming_writes_direct NNumbers then Some d else None) end
                = cleanup_impl c w2 k IFNum None) by (intros d; destruct k; reflexivity).
  assert (Ebg : match k with KNever => false | _ => c_bg c end = false) by (destruct k; auto).
  unfold initialize. rewrite Hrot, En. cbn [bind]. rewrite Eo. cbn [bind]. rewrite Ern. cbn [bind]. rewrite Ecl, Ec. cbn [bind]. rewrite Ebg.
  assert (E1 : fst (init_view_k c closed ocur) = cl1) by (rewrite <- Ev; reflexivity).
  assert (E2 : snd (init_view_k c closed ocur) = ocb oc1) by (rewrite <- Ev; reflexivity).
  rewrite E1, E2. exists w4, wr, roll. split; [reflexivity|]. split; [exact I4|]. split; [congruence|]. split; [exact Z|].
  eapply same_env_trans; [exact S1|]. eapply same_env_trans; eassumption.
Qed.

(* ------------------------------------------------------------------ the run *)
(* the writer after its first write: p = (everything closed so far, current file), (lo0, mid0) the window that the run found *)
Definition RelV (x : sys) (p : list bytes * bytes) (lo0 mid0 : nat) : Prop :=
  s_tl x = [] /\ wacts (s_w x) = 0 /\
  exists lo mid wr roll, s_flw x = Some (st_ofk c k (length (fst p)) roll wr)
    /\ NumKInv c (s_w x) wr (fst p) lo mid
    /\ cur_view (s_w x) wr = snd p /\ roll_size_ok roll (length (snd p))
    /\ lo0 <= lo /\ mid0 <= mid /\ WinOK A B lo mid (length (fst p)) /\ kup k lo mid (length (fst p)).

Definition GRelV (x : sys) (v : aview) (lo0 mid0 : nat) (a : aview) : Prop :=
  match a with None => PreV A B c x v lo0 mid0 | Some p => RelV x p lo0 mid0 end.

Lemma win_rot lo mid L : lo <= mid <= L -> WinOK A B lo mid L ->
  WinOK A B (knew_lo k lo (S L)) (knew_mid k mid (S L)) (S L).
Proof. intros Hle X. apply winok_knew; [exact Hkok|]. apply winok_S; [lia | lia | exact X]. Qed.

(* a write on an active writer, on the level of the relation *)
Lemma write_rel_v x p lo0 mid0 b :
  RelV x p lo0 mid0 ->
  exists s, s_flw x = Some s /\ f_poisoned s = false /\
    let '(r, w', s', rot) := write_buffer s (s_w x) b in
    r = Ok tt /\ exists q, a_step (Some p) (OWrite b) rot = Some q
                 /\ RelV {| s_flw := Some s'; s_w := w'; s_tl := []; s_dead := s_dead x |} q lo0 mid0.
Proof.
  intros (Ht & Ha & lo & mid & wr & roll & Es & I & V & Z & Hlo & Hmid & X & U). destruct p as [closed cur]. cbn [fst snd] in *.
  exists (st_ofk c k (length closed) roll wr). split; [exact Es|]. split; [reflexivity|].
  rewrite <- V in Z.
  destruct (write_active_v (s_w x) wr closed lo mid roll b I Z) as (w1 & wr' & roll' & closed' & lo' & mid' & E & I' & Z' & S' & V' & W').
  rewrite E. split; [reflexivity|]. cbn [a_step]. rewrite V in V'.
  pose proof (kd_le _ _ _ _ _ (nk_dir _ _ _ _ _ _ I)) as Hle.
  destruct (rotation_necessary (s_w x) roll); injection V' as -> V''; injection W' as -> ->; cbv iota; eexists; (split; [reflexivity|]);
    (split; [reflexivity|]); (split; [cbn [s_w]; exact (same_env_acts _ _ S' Ha)|]); cbn [fst snd s_flw s_w].
  - exists (knew_lo k lo (S (length closed))), (knew_mid k mid (S (length closed))), wr', roll'.
    assert (Elen : length (closed ++ [cur]) = S (length closed)) by (rewrite app_length; cbn [length]; lia).
    split; [reflexivity|]. split; [exact I'|]. split; [exact V''|]. split; [rewrite <- V''; exact Z'|].
    rewrite Elen. split; [pose proof (knew_lo_ge k lo (S (length closed))); lia|].
    split; [pose proof (knew_mid_ge k mid (S (length closed))); lia|].
    split; [apply win_rot; assumption | apply kup_knew].
  - exists lo, mid, wr', roll'.
    split; [reflexivity|]. split; [exact I'|]. split; [exact V''|]. split; [rewrite <- V''; exact Z'|].
    split; [exact Hlo|]. split; [exact Hmid|]. split; [exact X | exact U].
Qed.

Lemma step_sync_relv x p lo0 mid0 o : RelV x p lo0 mid0 -> step x o = sync_step x o.
Proof.
  intros (_ & _ & lo & mid & wr & roll & Es & _). destruct Hcfg as (_ & Hts & _ & Ha & _).
  apply (step_sync_cfg x o _ Es); assumption.
Qed.

Lemma step_rel_v x p lo0 mid0 o :
  RelV x p lo0 mid0 -> basic_op o ->
  let '(x', ob) := step x o in exists q, a_step (Some p) o (rot_of ob) = Some q /\ RelV x' q lo0 mid0.
Proof.
  intros R Hb. rewrite (step_sync_relv x p lo0 mid0 o R).
  destruct o; try contradiction; cbn [sync_step].
  - (* OWrite *)
    rewrite (proj1 R). cbn [app].
    destruct (write_rel_v x p lo0 mid0 b R) as [s [Es [Hp WR]]].
    rewrite Es, Hp. destruct (write_buffer s (s_w x) b) as [[[r w'] s'] rot]. cbn [rot_of].
    destruct WR as (-> & q & Eq & R'). exists q. split; [|exact R'].
    destruct p as [cl cu]. exact Eq.
  - (* OPlain *)
    destruct (write_rel_v x p lo0 mid0 b R) as [s [Es [Hp WR]]].
    rewrite Es, Hp. destruct (write_buffer s (s_w x) b) as [[[r w'] s'] rot]. cbn [rot_of].
    destruct WR as (-> & q & Eq & R'). cbn [code_of]. rewrite (proj1 R). exists q. split; [|exact R'].
    destruct p as [cl cu]. exact Eq.
  - (* OFlush *)
    destruct R as (Ht & Ha & lo & mid & wr & roll & Es & I & V & Z & Hlo & Hmid & X & U). destruct p as [closed cur]. cbn [fst snd] in *.
    rewrite Es. cbn [st_ofk f_poisoned].
    destruct (flush_active_k c k (s_w x) wr closed _ _ roll I) as [w' [wr' [E [I' [V' [P' S']]]]]].
    fold (st_ofk c k (length closed) roll wr). rewrite E. cbn [rot_of a_step].
    exists (closed, cur). split; [reflexivity|].
    split; [exact Ht|]. split; [exact (same_env_acts _ _ S' Ha)|]. exists lo, mid, wr', roll. cbn [s_flw s_w fst snd].
    split; [reflexivity|]. split; [exact I'|]. split; [congruence|]. repeat (split; [assumption|]). assumption.
  - (* OTrigger *)
    destruct R as (Ht & Ha & lo & mid & wr & roll & Es & I & V & Z & Hlo & Hmid & X & U). destruct p as [closed cur]. cbn [fst snd] in *.
    rewrite Es. cbn [st_ofk f_poisoned f_cfg f_inner].
    destruct (mount_next_rotates_v (s_w x) wr closed lo mid roll true I eq_refl) as [w' [wr' [roll' [E [I' [V' [Z' S']]]]]]].
    rewrite E. cbn [code_of with_inner f_cfg f_poisoned rot_of a_step].
    exists (closed ++ [cur], []). split; [reflexivity|].
    pose proof (kd_le _ _ _ _ _ (nk_dir _ _ _ _ _ _ I)) as Hle.
    split; [exact Ht|]. split; [exact (same_env_acts _ _ S' Ha)|]. rewrite V in *.
    exists (knew_lo k lo (S (length closed))), (knew_mid k mid (S (length closed))), wr', roll'. cbn [s_flw s_w fst snd].
    assert (Elen : length (closed ++ [cur]) = S (length closed)) by (rewrite app_length; cbn [length]; lia).
    split; [reflexivity|]. split; [exact I'|]. split; [exact V'|]. split; [exact Z'|].
    rewrite Elen. split; [pose proof (knew_lo_ge k lo (S (length closed))); lia|].
    split; [pose proof (knew_mid_ge k mid (S (length closed))); lia|].
    split; [apply win_rot; assumption | apply kup_knew].
  - (* OTick *)
    cbn [rot_of a_step]. exists p. split; [reflexivity|].
    destruct R as (Ht & Ha & lo & mid & wr & roll & Es & I & V & Z & Hlo & Hmid & X & U).
    split; [exact Ht|]. split; [exact Ha|]. exists lo, mid, wr, roll. cbn [s_flw s_w].
    split; [exact Es|]. split; [apply (numkinv_env c (s_w x)); [exact I | reflexivity | apply I]|].
    split; [exact V|]. repeat (split; [assumption|]). assumption.
  - (* OSnap *)
    cbn [rot_of a_step]. exists p. split; [reflexivity | exact R].
Qed.

(* ---- the first write ---- *)
Lemma first_write_v x v lo0 mid0 b :
  PreV A B c x v lo0 mid0 -> (N.of_nat (length (closed_of v)) <= u32_max)%N ->
  exists w' s' rot,
    write_buffer (new_flw c) (s_w x) b = (Ok tt, w', s', rot)
    /\ exists q, a_step (Some (init_view c v)) (OWrite b) rot = Some q
         /\ RelV {| s_flw := Some s'; s_w := w'; s_tl := []; s_dead := s_dead x |} q lo0 mid0.
Proof.
  intros (Ht & Ha & Es & Q & D) HL.
  assert (K0 : kst c (wfs (s_w x)) (wfs (s_w x)) (closed_of v) (oc_of v) lo0 mid0 None
               /\ (lo0 < length (closed_of v) \/ length (closed_of v) = 0)
               /\ lo0 <= mid0 <= length (closed_of v) /\ WinOK A B lo0 mid0 (length (closed_of v))).
  { destruct v as [[cl cu]|]; cbn [kdir_view_v closed_of oc_of] in *.
    - destruct D as (W & [KD Hc] & X). split.
      + constructor; [exact W | exact (kd_nodup _ _ _ _ _ KD) | exact (kdir_xdir c _ cl _ _ (Some cu) KD Hc) | apply same_at_refl].
      + split; [exact (winok_based A B _ _ _ HA X)|]. split; [exact (kd_le _ _ _ _ _ KD) | exact X].
    - destruct D as (Hn & Hi & -> & ->). split; [exact (empty_kst c _ Hn)|]. split; [right; reflexivity|].
      split; [cbn; lia | unfold WinOK; cbn; lia]. }
  destruct K0 as (K & Hlo & Hle & X).
  destruct (initialize_v (s_w x) (closed_of v) (oc_of v) lo0 mid0 Q K Hlo HL) as (w1 & wr & roll & Ei & I & V & Z & S1).
  assert (Eiv : init_view_k c (closed_of v) (oc_of v) = init_view c v).
  { destruct v as [[cl cu]|]; reflexivity. }
  rewrite Eiv in *. destruct (init_view c v) as [cl1 cu1] eqn:Ev. cbn [fst snd] in *.
  assert (Hl1 : length cl1 = length (closed_of v) \/ length cl1 = S (length (closed_of v))).
  { destruct v as [[cl cu]|]; cbn [init_view closed_of] in *.
    - destruct (c_append c); injection Ev as <- _; [left; reflexivity | right; rewrite app_length; cbn [length]; lia].
    - injection Ev as <- _. left. reflexivity. }
  assert (X1 : WinOK A B (knew_lo k lo0 (length cl1)) (knew_mid k mid0 (length cl1)) (length cl1)).
  { apply winok_knew; [exact Hkok|]. destruct Hl1 as [->| ->]; [exact X | apply winok_S; [lia | lia | exact X]]. }
  assert (R1 : RelV {| s_flw := Some (st_ofk c k (length cl1) roll wr); s_w := w1; s_tl := []; s_dead := s_dead x |} (cl1, cu1) lo0 mid0).
  { split; [reflexivity|]. split; [cbn [s_w]; exact (same_env_acts _ _ S1 Ha)|].
    exists (knew_lo k lo0 (length cl1)), (knew_mid k mid0 (length cl1)), wr, roll. cbn [s_flw s_w fst snd].
    split; [reflexivity|]. split; [exact I|]. split; [exact V|]. split; [exact Z|].
    split; [apply knew_lo_ge|]. split; [apply knew_mid_ge|]. split; [exact X1 | apply kup_knew]. }
  destruct (write_rel_v _ (cl1, cu1) lo0 mid0 b R1) as (s & Es1 & _ & WR). cbn [s_flw s_w s_dead] in *.
  injection Es1 as <-.
  rewrite (write_buffer_init c (s_w x) b _ _ _ w1 Ei).
  change {| f_cfg := c; f_inner := Active (Some (mk_rsk k (NSNumR (N.of_nat (length cl1))) roll)) wr (cname c); f_poisoned := false |}
    with (st_ofk c k (length cl1) roll wr).
  destruct (write_buffer (st_ofk c k (length cl1) roll wr) w1 b) as [[[r w'] s'] rot].
  destruct WR as (-> & q & Eq & R'). exists w', s', rot. split; [reflexivity|]. exists q. split; [exact Eq | exact R'].
Qed.

Lemma step_sync_prev x v lo0 mid0 o : PreV A B c x v lo0 mid0 -> step x o = sync_step x o.
Proof. exact (step_sync_pre c crit k _ x o Hcfg). Qed.

Lemma gstep_rel_v x v lo0 mid0 a o :
  GRelV x v lo0 mid0 a -> basic_op o -> (N.of_nat (length (closed_of v)) <= u32_max)%N ->
  let '(x', ob) := step x o in GRelV x' v lo0 mid0 (g_step c v a o (rot_of ob)).
Proof.
  intros G Ho HL. destruct a as [p|].
  - cbn [GRelV g_step] in *. pose proof (step_rel_v x p lo0 mid0 o G Ho) as S.
    destruct (step x o) as [x' ob]. destruct S as (q & Eq & R1). rewrite Eq. exact R1.
  - apply (pre_step c crit k _ (fun y a => GRelV y v lo0 mid0 a) v x o Hcfg G Ho); [intros y Hy; exact Hy|].
    intros b. destruct (first_write_v x v lo0 mid0 b G HL) as (w' & s' & rot & E & q & Eq & R').
    exists w', s', rot. split; [exact E|]. rewrite Eq. exact R'.
Qed.

Lemma grun_rel_v v lo0 mid0 : (N.of_nat (length (closed_of v)) <= u32_max)%N ->
  forall ops x a, GRelV x v lo0 mid0 a -> Forall basic_op ops ->
  GRelV (fst (run x ops)) v lo0 mid0 (g_run c v a ops (snd (run x ops))).
Proof.
  intros HL. apply (grun_inv c v (fun y a => GRelV y v lo0 mid0 a)). intros x a o G Ho. exact (gstep_rel_v x v lo0 mid0 a o G Ho HL).
Qed.

(* ------------------------------------------------------------------ start and stop *)
Lemma start_prev x v lo mid : IdleV A B c x v lo mid -> PreV A B c (fst (step x (OStart c))) v lo mid.
Proof. apply start_pre_sys. Qed.

Lemma stop_idlev x v lo0 mid0 a : GRelV x v lo0 mid0 a ->
  exists lo mid, IdleV A B c (fst (step x OStop)) (gview v a) lo mid /\ lo0 <= lo /\ mid0 <= mid
    /\ (a <> None -> kup k lo mid (length (closed_of (gview v a)))).
Proof.
  intros G. destruct a as [[closed cur]|]; cbn [GRelV gview] in *.
  - rewrite (step_sync_relv x _ lo0 mid0 OStop G).
    destruct G as (Ht & Ha & lo & mid & wr & roll & Es & I & V & Z & Hlo & Hmid & X & U). cbn [fst snd] in *. cbn [sync_step].
    rewrite Es. cbn [st_ofk f_poisoned]. unfold drop_state.
    destruct (shutdown_active_k c k (s_w x) wr closed _ _ roll I Ha) as [w1 [wr1 [E1 [I1 [V1 [P1 A1]]]]]].
    fold (st_ofk c k (length closed) roll wr). rewrite E1.
    destruct (shutdown_active_k c k w1 wr1 closed _ _ roll I1 A1) as [w2 [wr2 [E2 [I2 [V2 [P2 A2]]]]]]. rewrite E2.
    cbn [st_ofk f_inner s_w]. unfold w_drop.
    destruct (w_flush_quiet w2 wr2 (nk_quiet _ _ _ _ _ _ I2)) as [w3 [E3 [F3 S3]]]. rewrite E3. cbn [fst snd].
    rewrite P2, append_ino_nil_id in F3. exists lo, mid. split; [|split; [exact Hlo|]; split; [exact Hmid|]; intros _; exact U].
    unfold IdleV, idle_sys. cbn [s_tl s_w s_flw].
    split; [exact Ht|]. split; [exact (same_env_acts _ _ S3 A2)|]. split; [reflexivity|]. split; [apply S3|].
    cbn [kdir_view_v]. rewrite F3.
    destruct I2 as [Q W Hc Hcp KD Hwr Hcap]. split; [exact W|]. split; [|exact X]. split; [exact KD|].
    exists (wino wr2). split; [exact Hc|]. split; [exact Hcp|].
    unfold cur_view in *. rewrite P2, app_nil_r in V2. congruence.
  - rewrite (step_sync_prev x v lo0 mid0 OStop G). destruct G as (Ht & Ha & Es & Q & D). cbn [sync_step].
    rewrite Es. cbn [new_flw f_poisoned drop_state shutdown_state f_inner fst]. exists lo0, mid0.
    split; [|split; [lia|]; split; [lia|]; intros H; congruence].
    unfold IdleV, idle_sys. cbn [s_tl s_w s_flw].
    split; [exact Ht|]. split; [exact Ha|]. split; [reflexivity|]. split; [exact Q | exact D].
Qed.

(* a record was written: the run has looked at the directory *)
Lemma g_run_some v : forall ops p obs, exists q, g_run c v (Some p) ops obs = Some q.
Proof.
  induction ops as [|o r IH]; intros p obs; [cbn; eauto|]. destruct obs as [|ob robs]; [cbn; eauto|].
  cbn [g_run g_step]. destruct (a_step_some p o (rot_of ob)) as [q ->]. apply IH.
Qed.
Lemma g_run_written v : forall ops obs, length obs = length ops -> existsb is_wr ops = true ->
  exists q, g_run c v None ops obs = Some q.
Proof.
  induction ops as [|o r IH]; intros obs Hl Hw; [discriminate|]. destruct obs as [|ob robs]; [discriminate|].
  cbn [g_run]. cbn [existsb] in Hw. destruct (is_wr o) eqn:Eo.
  - assert (E : exists q, g_step c v None o (rot_of ob) = Some q).
    { destruct o; try discriminate; cbn [g_step]; apply a_step_some. }
    destruct E as [q ->]. apply g_run_some.
  - assert (E : g_step c v None o (rot_of ob) = None) by (destruct o; try discriminate; reflexivity).
    rewrite E. apply IH; [cbn in Hl; lia | exact Hw].
Qed.

(* ------------------------------------------------------------------ one whole run *)
Lemma one_run_v x v lo0 mid0 ops :
  (N.of_nat (length (closed_of v)) <= u32_max)%N -> Forall basic_op ops -> IdleV A B c x v lo0 mid0 ->
  exists v' lo mid, IdleV A B c (fst (run x (OStart c :: ops ++ [OStop]))) v' lo mid
    /\ flat v' = flat v ++ written ops
    /\ length (closed_of v') <= length (closed_of v) + S (length ops)
    /\ extends v v' /\ lo0 <= lo /\ mid0 <= mid
    /\ (existsb is_wr ops = true -> kup k lo mid (length (closed_of v'))).
Proof.
  intros Hb Hops Id. cbn [run]. pose proof (start_prev x v lo0 mid0 Id) as P0.
  destruct (step x (OStart c)) as [x0 ob0]. cbn [fst] in P0.
  rewrite run_app.
  pose proof (grun_rel_v v lo0 mid0 Hb ops x0 None P0 Hops) as G1. pose proof (run_length ops x0) as L.
  destruct (run x0 ops) as [x1 obs1]. cbn [fst snd] in *.
  destruct (stop_idlev x1 v lo0 mid0 _ G1) as (lo & mid & S & Hlo & Hmid & U). cbn [run].
  destruct (step x1 OStop) as [x2 ob2]. cbn [fst] in *.
  exists (gview v (g_run c v None ops obs1)), lo, mid. split; [exact S|]. split.
  { rewrite gview_flat, (g_run_flat c v ops None obs1 Hops L). reflexivity. }
  split. { pose proof (gview_pot v (g_run c v None ops obs1)); pose proof (g_run_pot c v ops None obs1); cbn [gpot] in *; lia. }
  split. { apply g_run_extends. apply extends_refl. }
  split; [exact Hlo|]. split; [exact Hmid|].
  intros Hw. apply U. destruct (g_run_written v ops obs1 L Hw) as [q ->]. discriminate.
Qed.

End OneRunV.
