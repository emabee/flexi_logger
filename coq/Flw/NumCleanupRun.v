(* Numbers naming with a cleanup strategy, part 3: the invariant NumKInv, one rotation (mount_next with cleanup),
   every history of basic operations, and the end-to-end theorem numbers_cleanup_stream:
   after the writer is stopped the directory holds exactly rCURRENT, the newest n closed files as plain files,
   the next m closed files as archives with the same content, nothing else.
   The run (Section Run, the *_gen lemmas) is proved for any naming with one open file and any invariant that is kept by
   appending, by a rotation and established by the first write; Numbers naming with NumKInv is the instance RelK. *)
Require Import FL.Base.Bytes FL.Base.BytesFacts FL.Base.PathName FL.Fs.Fs FL.Fs.FsFacts FL.Names.FileSpec FL.Flw.Model
  FL.Flw.ModelFacts FL.Flw.QuietFacts FL.Flw.NumFs FL.Flw.NumInv FL.Flw.Run FL.Flw.RunFacts FL.Flw.NumRun FL.Flw.NumListing
  FL.Flw.NumKillRestart FL.Flw.CleanupFacts FL.Flw.NumCleanupNames FL.Flw.NumCleanupStep.
From Coq Require Import ZifyN ZifyNat ZifyBool.
Open Scope nat_scope.

(* ------------------------------------------------------------------ configurations, limits, shape *)
Definition numkcfg (c : config) (crit : criterion) (k : cleanup) : Prop :=
  c_rot c = Some (crit, NNumbers, k) /\ fts (c_spec c) = false /\ c_symlink c = false /\ c_async c = false
  /\ c_bg c = false.

(* side condition, needed only when there is a cleanup: the suffix is not (and does not end with .)gz.  It does not
   depend on the number L of closed files (the listing is ordered by the NUMBER of the infix; kside_iff in
   NumCleanupUnbounded.v) *)
Definition kside (c : config) (k : cleanup) (L : nat) : Prop :=
  match klim k with None => True | Some _ => sfx_ok (c_spec c) end.

(* with L closed files: the archives are lo <= i < mid, the plain files mid <= i < L *)
Definition k_lo (k : cleanup) (L : nat) : nat := match klim k with None => 0 | Some (n, m) => L - (n + m) end.
Definition k_mid (k : cleanup) (L : nat) : nat := match klim k with None => 0 | Some (n, m) => L - n end.
Definition knew_lo (k : cleanup) (lo L : nat) : nat := match klim k with None => lo | Some (n, m) => Nat.max lo (L - (n + m)) end.
Definition knew_mid (k : cleanup) (mid L : nat) : nat := match klim k with None => mid | Some (n, m) => Nat.max mid (L - n) end.

Lemma knew_lo_step k L : knew_lo k (k_lo k L) (S L) = k_lo k (S L).
Proof. unfold knew_lo, k_lo. destruct (klim k) as [[n m]|]; lia. Qed.
Lemma knew_mid_step k L : knew_mid k (k_mid k L) (S L) = k_mid k (S L).
Proof. unfold knew_mid, k_mid. destruct (klim k) as [[n m]|]; lia. Qed.
Lemma k_lo_0 k : k_lo k 0 = 0.
Proof. unfold k_lo. destruct (klim k) as [[n m]|]; reflexivity. Qed.
Lemma k_mid_0 k : k_mid k 0 = 0.
Proof. unfold k_mid. destruct (klim k) as [[n m]|]; reflexivity. Qed.
Lemma kside_le c k L L' : L <= L' -> kside c k L' -> kside c k L.
Proof. intros _ H. exact H. Qed.
Lemma kside_sfx c k L : sfx_ok (c_spec c) -> kside c k L.
Proof. intros Hs. unfold kside. destruct (klim k); [exact Hs | exact I]. Qed.

Lemma gname_ne_rname c i j : gname c i <> rname c j.
Proof.
  rewrite gname_app, !rname_shape, <- !app_assoc. intros H. apply app_inv_head in H. cbn [app] in H. injection H as H.
  unfold sfxs in H. destruct (fsfx (c_spec c)) as [s|].
  - unfold dot_gz in H. cbn [app] in H.
    apply first_dot_unique in H; [|apply digs_no; reflexivity | apply digs_no; reflexivity].
    destruct H as [_ H]. apply (f_equal (@length N)) in H. rewrite app_length in H. cbn [length] in H. lia.
  - rewrite !app_nil_r in H. unfold dot_gz in H. apply (digs_no dot (N.of_nat j)); [reflexivity|]. rewrite <- H.
    apply in_or_app. right. left. reflexivity.
Qed.

(* ------------------------------------------------------------------ the invariant *)
Record NumKInv (c : config) (w : world) (wr : writer) (closed : list bytes) (lo mid : nat) : Prop := {
  nk_quiet : quiet w;
  nk_wf : fs_wf (wfs w);
  nk_cur : lookup (wfs w) (cname c) = Some (wino wr);
  nk_curplain : plain (inode (wfs w) (wino wr));
  nk_dir : kdir c (wfs w) closed lo mid;
  nk_wr : wr_ok wr;
  nk_cap : wcap wr = c_cap c }.

Definition mk_rsk (k : cleanup) (ns : naming_state) (r : roll_state) : rot_state :=
  {| rs_naming := ns; rs_roll := r; rs_cleanup := k; rs_bg := false |}.
Definition st_ofk (c : config) (k : cleanup) (n : nat) (roll : roll_state) (wr : writer) : flw :=
  {| f_cfg := c; f_inner := Active (Some (mk_rsk k (NSNumR (N.of_nat n)) roll)) wr (cname c); f_poisoned := false |}.

Lemma cleanup_impl_never c w flt d : cleanup_impl c w KNever flt d = (Ok tt, w).
Proof. reflexivity. Qed.
Lemma klim_none k : klim k = None -> k = KNever.
Proof. destruct k; cbn; congruence. Qed.


Definition roll_reset (r : roll_state) (t : Z) : roll_state :=
  match r with RSize max _ => RSize max 0 | RAge a _ => RAge a t | RAgeSize a _ max _ => RAgeSize a t max 0 end.
Definition roll_init (crit : criterion) (t : Z) : roll_state :=
  match crit with CSize n => RSize n 0 | CAge a => RAge a t | CAgeOrSize a n => RAgeSize a t n 0 end.

Lemma p_rename_quiet_eq w a b f' : quiet w -> rename (wfs w) a b = Some f' -> p_rename w a b = (ROk, set_fs w f').
Proof. intros Q E. unfold p_rename. rewrite tick_quiet, E, effect_quiet_eq, E by assumption. reflexivity. Qed.

Definition next_infix (c : config) (w : world) (ns : naming_state) (infix : bytes) (w1 : world) (ns1 : naming_state) : Prop :=
  match ns with
  | NSTs ts (Some cur) fmt =>
    exists ts', creation_ts_of_current c w cur true (Some ts) fmt = (Ok ts', w1) /\ infix = cur /\ ns1 = NSTs ts' (Some cur) fmt
  | NSTs _ None fmt => collision_free c w (infix_from_ts c w fmt (wnow w)) = (Ok infix, w1) /\ ns1 = NSTs (wnow w) None fmt
  | NSNumR idx => exists idx', index_for_rcurrent c w (Some idx) true = (Ok idx', w1) /\ infix = cur_infix /\ ns1 = NSNumR idx'
  | NSNumD idx => infix = number_infix (idx + 1) /\ w1 = w /\ ns1 = NSNumD (idx + 1)
  end.

Lemma mount_next_fresh c w rs wr path force infix w1 ns1 :
  force || rotation_necessary w (rs_roll rs) = true -> next_infix c w (rs_naming rs) infix w1 ns1 ->
  quiet w1 -> c_symlink c = false -> lookup (wfs w1) (name_of c w1 (Some infix)) = None ->
  let p' := name_of c w1 (Some infix) in
  let w3 := flushed (set_fs w1 (fst (create_file (wfs w1) p' 0%N (wnow w1)))) wr in
  mount_next c w (Active (Some rs) wr path) force
  = let '(rc, w4) := cleanup_or_queue c w3 (rs_bg rs) (rs_cleanup rs) (ns_filter ns1) (if ns_writes_direct ns1 then Some p' else None) in
    (match rc with Ok _ => Ok tt | Err => Err | Panic => Panic end, w4,
     Active (Some {| rs_naming := ns1; rs_roll := reset_size_and_date w3 (rs_roll rs) p'; rs_cleanup := rs_cleanup rs; rs_bg := rs_bg rs |})
            {| wino := length (inodes (wfs w1)); wpend := []; wcap := c_cap c |} p').
Proof.
  intros Hnec N Q Hl L p' w3. unfold mount_next. rewrite Hnec.
  destruct (rs_naming rs) as [ts [cur|] fmt | idx | idx]; cbn [next_infix] in N;
    [destruct N as (ts' & -> & -> & ->) | destruct N as [-> ->] | destruct N as (idx' & -> & -> & ->) | destruct N as (-> & -> & ->)];
    rewrite (open_log_file_fresh c _ _ Q Hl L), w_flush_quiet_eq by exact Q; cbn iota;
    rewrite w_drop_quiet by exact Q; rewrite (flushed_emptied _ wr); reflexivity.
Qed.

Lemma roll_of_fresh crit (ap : bool) t :
  roll_of crit (if ap then N.of_nat (length (fdata (fresh_file t))) else 0%N) (fborn (fresh_file t)) = roll_init crit t.
Proof. destruct crit; destruct ap; reflexivity. Qed.
Lemma roll_init_size_ok crit t : roll_size_ok (roll_init crit t) 0.
Proof. destruct crit; reflexivity. Qed.

Lemma reset_size_and_date_born w r p fl : file_of (wfs w) p = Some fl -> reset_size_and_date w r p = roll_reset r (fborn fl).
Proof. intros F. unfold reset_size_and_date, birth_or_now. rewrite F. destruct r; reflexivity. Qed.

Definition nclosed (a : aview) : nat := match a with Some (cl, _) => length cl | None => 0 end.


Lemma nclosed_step a o rot : nclosed a <= nclosed (a_step a o rot).
Proof.
  destruct o; cbn [a_step]; try lia.
  - destruct a as [[cl cu]|]; destruct rot; cbn [nclosed]; rewrite ?app_length; cbn [length]; lia.
  - destruct a as [[cl cu]|]; destruct rot; cbn [nclosed]; rewrite ?app_length; cbn [length]; lia.
  - destruct a as [[cl cu]|]; cbn [nclosed]; rewrite ?app_length; cbn [length]; lia.
Qed.
Lemma nclosed_run : forall ops a obs, nclosed a <= nclosed (a_run a ops obs).
Proof.
  induction ops as [|o r IH]; intros a obs; cbn [a_run]; [lia|]. destruct obs as [|ob robs]; [lia|].
  eapply Nat.le_trans; [apply (nclosed_step a o (rot_of ob)) | apply IH].
Qed.

(* the trace of the rotation state: what decides the rotation flags is the clock and the rotation state only *)
Definition roll_of_flw (s : flw) : option roll_state :=
  match f_inner s with Active (Some rs) _ _ => Some (rs_roll rs) | _ => None end.
Definition roll_of_sys (x : sys) : option roll_state :=
  match s_flw x with Some s => roll_of_flw s | None => None end.
Definition is_write (o : op) : option bytes := match o with OWrite b | OPlain b => Some b | _ => None end.
Definition flag_of (crit : criterion) (w : world) (ro : option roll_state) (o : op) : bool :=
  match is_write o with
  | Some _ => rotation_necessary w (match ro with Some r => r | None => roll_init crit (wnow w) end)
  | None => false
  end.
Definition ro_step (crit : criterion) (t : Z) (ro : option roll_state) (o : op) (flag : bool) : option roll_state :=
  match o with
  | OWrite b | OPlain b =>
    let r0 := match ro with Some r => r | None => roll_init crit t end in
    Some (increase_size (if flag then roll_reset r0 t else r0) (N.of_nat (length b)))
  | OTrigger => match ro with Some r => Some (roll_reset r t) | None => None end
  | _ => ro
  end.
Definition clock_step (o : op) (t : Z) : Z := match o with OTick dt => (t + dt)%Z | _ => t end.

Lemma rotation_necessary_env w w' r : wnow w' = wnow w -> woff w' = woff w -> rotation_necessary w' r = rotation_necessary w r.
Proof.
  intros H1 H2. unfold rotation_necessary, age_rotation_necessary, local_civil. rewrite H1, H2. reflexivity.
Qed.
Lemma same_env_clock w w' : same_env w w' -> wnow w' = wnow w /\ woff w' = woff w.
Proof. intros (_ & A & B & _). auto. Qed.
Lemma same_env_werrs w w' : same_env w w' -> werrs w' = werrs w.
Proof. intros (_ & _ & _ & H & _). exact H. Qed.

Definition trace_ok (crit : criterion) (x x' : sys) (o : op) (ob : obs) : Prop :=
  rot_of ob = flag_of crit (s_w x) (roll_of_sys x) o
  /\ roll_of_sys x' = ro_step crit (wnow (s_w x)) (roll_of_sys x) o (rot_of ob)
  /\ wnow (s_w x') = clock_step o (wnow (s_w x)) /\ woff (s_w x') = woff (s_w x).

(* Every history of basic operations, for any naming whose state is `ns n` and whose open file is `path n` after n
   rotations, and any invariant Inv w wr closed of world, buffered writer and contents of the closed files: what is needed
   of them is that appending to the writer's inode keeps Inv (inv_append), that one rotation closes the file (rotates),
   and that the first write opens one on the empty directory (init).  `side` is the side condition of a rotation. *)
Section Run.
Variables (c : config) (crit : criterion) (k : cleanup) (side : Prop).
Variable Inv : world -> writer -> list bytes -> Prop.
Variables (ns : nat -> naming_state) (path : nat -> bytes).

Definition st_gen (n : nat) (roll : roll_state) (wr : writer) : flw :=
  {| f_cfg := c; f_inner := Active (Some (mk_rsk k (ns n) roll)) wr (path n); f_poisoned := false |}.

Hypothesis cfg_ts : fts (c_spec c) = false.
Hypothesis cfg_sync : c_async c = false.
Hypothesis inv_quiet : forall w wr closed, Inv w wr closed -> quiet w.
Hypothesis inv_wr : forall w wr closed, Inv w wr closed -> wr_ok wr.
Definition append_spec : Prop := forall w w' wr wr' closed x,
  Inv w wr closed -> wfs w' = append_ino (wfs w) (wino wr) x -> same_env w w' ->
  wino wr' = wino wr -> wcap wr' = wcap wr -> wr_ok wr' ->
  Inv w' wr' closed /\ content (wfs w') (wino wr') = content (wfs w) (wino wr) ++ x.
Hypothesis inv_append : append_spec.
Hypothesis inv_env : forall w w' wr closed, Inv w wr closed -> wfs w' = wfs w -> quiet w' -> Inv w' wr closed.
Definition rotates_spec : Prop := forall w wr closed roll force,
  side -> Inv w wr closed -> force || rotation_necessary w roll = true ->
  exists w' wr' roll',
    mount_next c w (Active (Some (mk_rsk k (ns (length closed)) roll)) wr (path (length closed))) force
      = (Ok tt, w', Active (Some (mk_rsk k (ns (length (closed ++ [cur_view w wr]))) roll')) wr'
                          (path (length (closed ++ [cur_view w wr]))))
    /\ Inv w' wr' (closed ++ [cur_view w wr])
    /\ cur_view w' wr' = [] /\ roll_size_ok roll' 0 /\ same_env w w'
    /\ (forall m cur, roll = RSize m cur -> exists cur', roll' = RSize m cur')
    /\ roll' = roll_reset roll (wnow w).
Hypothesis rotates : rotates_spec.
Definition init_spec : Prop := forall w, side -> quiet w -> names (wfs w) = [] -> inodes (wfs w) = [] ->
  exists w' wr roll,
    initialize c w = (Ok (Active (Some (mk_rsk k (ns 0) roll)) wr (path 0)), w')
    /\ Inv w' wr [] /\ cur_view w' wr = [] /\ roll_size_ok roll 0 /\ same_env w w'
    /\ (forall m, crit = CSize m -> roll = RSize m 0)
    /\ roll = roll_init crit (wnow w).
Hypothesis init : init_spec.

Lemma write_active_gen w wr closed roll b :
  Inv w wr closed -> roll_size_ok roll (length (cur_view w wr)) ->
  let rot := rotation_necessary w roll in
  (rot = true -> side) ->
  exists w' wr' roll' closed',
    write_buffer (st_gen (length closed) roll wr) w b = (Ok tt, w', st_gen (length closed') roll' wr', rot)
    /\ Inv w' wr' closed'
    /\ roll_size_ok roll' (length (cur_view w' wr')) /\ same_env w w'
    /\ (closed', cur_view w' wr') = (if rot then (closed ++ [cur_view w wr], b) else (closed, cur_view w wr ++ b))
    /\ (forall m cur, roll = RSize m cur -> exists cur', roll' = RSize m cur')
    /\ roll' = increase_size (if rot then roll_reset roll (wnow w) else roll) (N.of_nat (length b)).
Proof.
  intros I Hsz rot Hside.
  unfold write_buffer, st_gen. cbn [f_cfg f_inner f_poisoned mk_rsk rs_roll]. fold rot.
  assert (M : exists w1 wr1 roll1 closed1,
            mount_next c w (Active (Some (mk_rsk k (ns (length closed)) roll)) wr (path (length closed))) false
            = (Ok tt, w1, Active (Some (mk_rsk k (ns (length closed1)) roll1)) wr1 (path (length closed1)))
            /\ Inv w1 wr1 closed1
            /\ roll_size_ok roll1 (length (cur_view w1 wr1)) /\ same_env w w1
            /\ (closed1, cur_view w1 wr1) = (if rot then (closed ++ [cur_view w wr], []) else (closed, cur_view w wr))
            /\ (forall m cur, roll = RSize m cur -> exists cur', roll1 = RSize m cur')
            /\ roll1 = (if rot then roll_reset roll (wnow w) else roll)).
  { destruct rot eqn:Er.
    - destruct (rotates w wr closed roll false (Hside eq_refl) I) as [w1 [wr1 [roll1 [E [I1 [V1 [Z1 [S1 [R1 RR1]]]]]]]]]; [exact Er|].
      exists w1, wr1, roll1, (closed ++ [cur_view w wr]). rewrite V1.
      split; [exact E|]. split; [exact I1|]. split; [exact Z1|]. split; [exact S1|]. split; [reflexivity|]. split; [exact R1 | exact RR1].
    - exists w, wr, roll, closed. split.
      + unfold mount_next. cbn [mk_rsk rs_roll orb]. unfold rot in Er. rewrite Er. reflexivity.
      + split; [exact I|]. split; [exact Hsz|]. split; [apply same_env_refl; exact (inv_quiet _ _ _ I)|]. split; [reflexivity|].
        split; [eauto | reflexivity]. }
  destruct M as [w1 [wr1 [roll1 [closed1 [E [I1 [Z1 [S1 [V1 [R1 RR1]]]]]]]]]].
  rewrite E.
  destruct (w_write_quiet w1 wr1 b (inv_quiet _ _ _ I1) (inv_wr _ _ _ I1)) as [w2 [wr2 [fl [Ew [S2 [F2 [Ei [Ec [Ep Hok]]]]]]]]].
  rewrite Ew.
  destruct (inv_append w1 w2 wr1 wr2 closed1 fl I1 F2 S2 Ei Ec Hok) as [I2 C2].
  exists w2, wr2, (increase_size roll1 (N.of_nat (length b))), closed1.
  assert (V2 : cur_view w2 wr2 = cur_view w1 wr1 ++ b).
  { unfold cur_view. rewrite C2, <- !app_assoc, Ep. reflexivity. }
  split; [reflexivity|]. split; [exact I2|].
  split. { rewrite V2, app_length. apply roll_size_increase. exact Z1. }
  split; [eapply same_env_trans; eassumption|].
  split. { rewrite V2. destruct rot; injection V1 as -> ->; reflexivity. }
  split; [intros m cur Hr; destruct (R1 m cur Hr) as [cur' ->]; cbn; eauto|].
  rewrite RR1. reflexivity.
Qed.

Lemma flushed_inv w wr closed :
  Inv w wr closed -> Inv (flushed w wr) (emptied wr) closed /\ cur_view (flushed w wr) (emptied wr) = cur_view w wr.
Proof.
  intros I.
  destruct (inv_append w (flushed w wr) wr (emptied wr) closed (wpend wr) I (flushed_fs w wr)
              (flushed_env w wr (inv_quiet _ _ _ I)) eq_refl eq_refl (wr_ok_nil _ _)) as [I1 C1].
  split; [exact I1|]. unfold cur_view. rewrite C1. cbn [emptied wpend]. rewrite app_nil_r. reflexivity.
Qed.

Lemma flush_active_gen w wr closed roll :
  Inv w wr closed ->
  exists w' wr', flush_state (st_gen (length closed) roll wr) w = (true, w', st_gen (length closed) roll wr')
    /\ Inv w' wr' closed /\ cur_view w' wr' = cur_view w wr /\ wpend wr' = [] /\ same_env w w'.
Proof.
  intros I. pose proof (inv_quiet _ _ _ I) as Q. destruct (flushed_inv w wr closed I) as [I1 V1].
  exists (flushed w wr), (emptied wr). split; [exact (flush_state_quiet _ _ _ _ _ _ Q)|].
  split; [exact I1|]. split; [exact V1|]. split; [reflexivity | exact (flushed_env w wr Q)].
Qed.

Lemma shutdown_active_gen w wr closed roll : Inv w wr closed -> wacts w = 0 ->
  exists w' wr', shutdown_state (st_gen (length closed) roll wr) w = (w', st_gen (length closed) roll wr')
    /\ Inv w' wr' closed /\ cur_view w' wr' = cur_view w wr /\ wpend wr' = [] /\ wacts w' = 0.
Proof.
  intros I Ha. pose proof (inv_quiet _ _ _ I) as Q. destruct (flushed_inv w wr closed I) as [I1 V1].
  exists (flushed w wr), (emptied wr). split; [exact (shutdown_state_quiet _ _ _ _ _ _ Q)|].
  split; [exact I1|]. split; [exact V1|]. split; [reflexivity | exact Ha].
Qed.

Lemma write_buffer_rotflag_gen L roll wr w b :
  snd (write_buffer (st_gen L roll wr) w b) = rotation_necessary w roll.
Proof.
  unfold write_buffer, st_gen. cbn [f_cfg f_inner mk_rsk rs_roll].
  destruct (mount_next c w (Active (Some (mk_rsk k (ns L) roll)) wr (path L)) false) as [[r1 w1] st1].
  destruct r1; try reflexivity; destruct st1 as [|o_rot wr1 p1]; try reflexivity;
    destruct (w_write _ wr1 b) as [[ok w3] wr3]; destruct ok; reflexivity.
Qed.

Definition Rel_gen (x : sys) (a : aview) : Prop :=
  s_tl x = [] /\ wacts (s_w x) = 0 /\
  match a with
  | None => s_flw x = Some (new_flw c) /\ quiet (s_w x) /\ names (wfs (s_w x)) = [] /\ inodes (wfs (s_w x)) = []
  | Some (closed, cur) =>
    exists wr roll, s_flw x = Some (st_gen (length closed) roll wr)
      /\ Inv (s_w x) wr closed
      /\ cur_view (s_w x) wr = cur /\ roll_size_ok roll (length cur)
      /\ (forall m, crit = CSize m -> exists z, roll = RSize m z)
  end.

Lemma write_rel_gen x a b :
  Rel_gen x a ->
  exists s, s_flw x = Some s /\ f_poisoned s = false /\
    (side ->
     let '(r, w', s', rot) := write_buffer s (s_w x) b in
     r = Ok tt
     /\ Rel_gen {| s_flw := Some s'; s_w := w'; s_tl := []; s_dead := s_dead x |} (a_step a (OWrite b) rot)
     /\ (forall m, crit = CSize m ->
           rot = (m <? N.of_nat (length (match a with Some (_, cu) => cu | None => [] end)))%N)
     /\ (rot = flag_of crit (s_w x) (roll_of_sys x) (OWrite b)
         /\ roll_of_flw s' = ro_step crit (wnow (s_w x)) (roll_of_sys x) (OWrite b) rot
         /\ wnow w' = wnow (s_w x) /\ woff w' = woff (s_w x))
     /\ werrs w' = werrs (s_w x)).
Proof.
  intros [Ht [Ha R]]. destruct a as [[closed cur]|].
  - destruct R as [wr [roll [Es [I [V [Z RS]]]]]].
    rewrite <- V in Z.
    exists (st_gen (length closed) roll wr). split; [exact Es|]. split; [reflexivity|]. intros Hside.
    destruct (write_active_gen (s_w x) wr closed roll b I Z (fun _ => Hside)) as [w1 [wr' [roll' [closed' [E' [I' [Z' [S' [V' [R' RR']]]]]]]]]].
    rewrite E'. split; [reflexivity|]. split; [|split; [|split]].
    + split; [reflexivity|]. split; [cbn [s_w]; exact (same_env_acts _ _ S' Ha)|].
      cbn [a_step]. rewrite V in V'.
      destruct (rotation_necessary (s_w x) roll); injection V' as <- V''; (exists wr', roll'; cbn [s_flw s_w];
        split; [reflexivity|]; split; [exact I'|]; split; [exact V''|]; split; [rewrite <- V''; exact Z'|];
        intros m Hm; destruct (RS m Hm) as [z ->]; destruct (R' m z eq_refl) as [z' ->]; eauto).
    + intros m Hm. destruct (RS m Hm) as [z ->]. cbn in Z. subst z. rewrite V. reflexivity.
    + unfold roll_of_sys. rewrite Es. cbn [roll_of_flw st_gen f_inner mk_rsk rs_roll flag_of is_write ro_step].
      split; [reflexivity|]. split; [rewrite RR'; reflexivity|]. apply same_env_clock. exact S'.
    + exact (same_env_werrs _ _ S').
  - destruct R as [Es [Q [Hn Hi]]].
    exists (new_flw c). split; [exact Es|]. split; [reflexivity|]. intros Hside.
    destruct (init (s_w x) Hside Q Hn Hi) as [w1 [wr [roll [Ei [I [V [Z [S1 [RS RI]]]]]]]]].
    rewrite (write_buffer_init c (s_w x) b _ _ _ w1 Ei).
    change {| f_cfg := c; f_inner := Active (Some (mk_rsk k (ns 0) roll)) wr (path 0); f_poisoned := false |}
      with (st_gen (length (@nil bytes)) roll wr).
    assert (Z0 : roll_size_ok roll (length (cur_view w1 wr))) by (rewrite V; exact Z).
    destruct (write_active_gen w1 wr [] roll b I Z0 (fun _ => Hside)) as [w2 [wr' [roll' [closed' [E' [I' [Z' [S' [V' [R' RR']]]]]]]]]].
    rewrite E'. split; [reflexivity|]. split; [|split; [|split]].
    + split; [reflexivity|]. split; [cbn [s_w]; exact (same_env_acts _ _ (same_env_trans _ _ _ S1 S') Ha)|].
      cbn [a_step]. rewrite V in V'. cbn [app] in V'.
      destruct (rotation_necessary w1 roll); injection V' as <- V''; (exists wr', roll'; cbn [s_flw s_w];
        split; [reflexivity|]; split; [exact I'|]; split; [exact V''|]; split; [rewrite <- V''; exact Z'|]).
      * intros m Hm. rewrite (RS m Hm) in R'. destruct (R' m 0%N eq_refl) as [z' ->]; eauto.
      * intros m Hm. rewrite (RS m Hm) in R'. destruct (R' m 0%N eq_refl) as [z' ->]; eauto.
    + intros m Hm. rewrite (RS m Hm). reflexivity.
    + destruct (same_env_clock _ _ S1) as [C1 C2]. destruct (same_env_clock _ _ S') as [C3 C4].
      unfold roll_of_sys. rewrite Es. cbn [roll_of_flw new_flw st_gen f_inner mk_rsk rs_roll flag_of is_write ro_step].
      rewrite <- RI. split; [apply rotation_necessary_env; assumption|]. split; [rewrite RR', C1; reflexivity|].
      split; congruence.
    + rewrite (same_env_werrs _ _ S'). exact (same_env_werrs _ _ S1).
Qed.

Lemma step_sync_rel_gen x a o : Rel_gen x a -> step x o = sync_step x o.
Proof.
  intros [_ [_ R]].
  assert (E : exists s, s_flw x = Some s /\ f_cfg s = c).
  { destruct a as [[closed cur]|]; [destruct R as [wr [roll [Es _]]] | destruct R as [Es _]]; rewrite Es; eexists; split; reflexivity. }
  destruct E as [s [Es Ec]]. apply (step_sync_cfg x o s Es); rewrite Ec; assumption.
Qed.

Lemma step_rel_gen x a o :
  side -> Rel_gen x a -> basic_op o ->
  let '(x', ob) := step x o in
  Rel_gen x' (a_step a o (rot_of ob))
  /\ (forall b m, (o = OWrite b \/ o = OPlain b) -> crit = CSize m ->
        ob = ObsRes 0 (m <? N.of_nat (length (match a with Some (_, cu) => cu | None => [] end)))%N)
  /\ trace_ok crit x x' o ob
  /\ obs_ok ob /\ werrs (s_w x') = werrs (s_w x).
Proof.
  intros Hside R Hb. rewrite (step_sync_rel_gen x a o R). unfold trace_ok.
  destruct o; try contradiction; cbn [sync_step].
  - (* OWrite *)
    destruct (write_rel_gen x a b R) as [s [Es [Hp WR]]]. specialize (WR Hside).
    rewrite Es, Hp. rewrite (proj1 R). cbn [app].
    destruct (write_buffer s (s_w x) b) as [[[r w'] s'] rot]. cbn [rot_of].
    destruct WR as (-> & R' & C & T & We). split; [exact R'|]. split; [|split; [|split; [reflexivity | exact We]]].
    + intros b0 m _ Hm. rewrite (C m Hm). reflexivity.
    + cbn [s_w clock_step]. exact T.
  - (* OPlain *)
    destruct (write_rel_gen x a b R) as [s [Es [Hp WR]]]. specialize (WR Hside).
    rewrite Es, Hp.
    destruct (write_buffer s (s_w x) b) as [[[r w'] s'] rot]. cbn [rot_of].
    destruct WR as (-> & R' & C & T & We). cbn [code_of]. rewrite (proj1 R). split; [exact R'|]. split; [|split; [|split; [reflexivity | exact We]]].
    + intros b0 m _ Hm. rewrite (C m Hm). reflexivity.
    + cbn [s_w clock_step]. exact T.
  - (* OFlush *)
    destruct R as [Ht [Ha R]]. destruct a as [[closed cur]|].
    + destruct R as [wr [roll [Es [I [V [Z RS]]]]]]. unfold roll_of_sys. rewrite Es. cbn [st_gen f_poisoned].
      destruct (flush_active_gen (s_w x) wr closed roll I) as [w' [wr' [E [I' [V' [P' S']]]]]].
      fold (st_gen (length closed) roll wr). rewrite E. cbn [rot_of a_step].
      split; [|split; [intros b m [H|H]; discriminate|split; [|split; [reflexivity | exact (same_env_werrs _ _ S')]]]].
      * split; [exact Ht|]. split; [exact (same_env_acts _ _ S' Ha)|]. exists wr', roll. cbn [s_flw s_w].
        split; [reflexivity|]. split; [exact I'|]. split; [congruence|]. split; assumption.
      * cbn [s_flw s_w]. split; [reflexivity|]. split; [reflexivity|]. apply same_env_clock. exact S'.
    + destruct R as [Es R]. unfold roll_of_sys. rewrite Es. cbn [new_flw f_poisoned flush_state f_inner rot_of a_step].
      split; [|split; [intros b m [H|H]; discriminate|split; [|split; reflexivity]]].
      * split; [exact Ht|]. split; [exact Ha|]. split; [reflexivity | exact R].
      * cbn [s_flw s_w]. repeat split.
  - (* OTrigger *)
    destruct R as [Ht [Ha R]]. destruct a as [[closed cur]|].
    + destruct R as [wr [roll [Es [I [V [Z RS]]]]]]. unfold roll_of_sys. rewrite Es. cbn [st_gen f_poisoned f_cfg f_inner].
      destruct (rotates (s_w x) wr closed roll true Hside I eq_refl) as [w' [wr' [roll' [E [I' [V' [Z' [S' [R' RR']]]]]]]]].
      rewrite E. cbn [rot_of a_step code_of with_inner f_cfg f_poisoned].
      split; [|split; [intros b m [H|H]; discriminate|split; [|split; [reflexivity | exact (same_env_werrs _ _ S')]]]].
      * split; [exact Ht|]. split; [exact (same_env_acts _ _ S' Ha)|]. rewrite V in *. exists wr', roll'. cbn [s_flw s_w].
        split; [reflexivity|]. split; [exact I'|]. split; [exact V'|]. split; [exact Z'|].
        intros m Hm. destruct (RS m Hm) as [z ->]. destruct (R' m z eq_refl) as [z' ->]. eauto.
      * cbn [s_flw s_w roll_of_flw f_inner mk_rsk rs_roll flag_of is_write ro_step clock_step].
        split; [reflexivity|]. split; [rewrite RR'; reflexivity|]. apply same_env_clock. exact S'.
    + destruct R as [Es R]. unfold roll_of_sys. rewrite Es.
      cbn [new_flw f_poisoned f_cfg f_inner mount_next with_inner rot_of a_step code_of].
      split; [|split; [intros b m [H|H]; discriminate|split; [|split; reflexivity]]].
      * split; [exact Ht|]. split; [exact Ha|]. split; [reflexivity | exact R].
      * cbn [s_flw s_w]. repeat split.
  - (* OTick *)
    cbn [rot_of a_step]. split; [|split; [intros b m [H|H]; discriminate|split; [|split; reflexivity]]].
    + destruct R as [Ht [Ha R]]. split; [exact Ht|]. split; [exact Ha|]. destruct a as [[closed cur]|].
      * destruct R as [wr [roll [Es [I [V [Z RS]]]]]]. exists wr, roll. cbn [s_flw s_w].
        split; [exact Es|]. split; [apply (inv_env (s_w x)); [exact I | reflexivity | exact (inv_quiet _ _ _ I)]|].
        split; [exact V|]. split; assumption.
      * cbn [s_flw s_w]. exact R.
    + unfold roll_of_sys. cbn [s_flw s_w set_now wnow woff]. repeat split.
  - (* OSnap *)
    cbn [rot_of a_step]. split; [exact R|]. split; [intros b m [H|H]; discriminate|]. split; [repeat split|]. split; [exact Logic.I | reflexivity].
Qed.

Lemma run_rel_gen : side -> forall ops x a, Rel_gen x a -> Forall basic_op ops ->
  Rel_gen (fst (run x ops)) (a_run a ops (snd (run x ops))) /\ Forall obs_ok (snd (run x ops)).
Proof.
  intros Hside. induction ops as [|o r IH]; intros x a R Hb; [split; [exact R | constructor]|].
  cbn [run] in *. inversion Hb as [|o' r' Ho Hr]; subst.
  pose proof (step_rel_gen x a o Hside R Ho) as S. destruct (step x o) as [x1 ob].
  specialize (IH x1 (a_step a o (rot_of ob))). destruct (run x1 r) as [x2 obs]. cbn [fst snd a_run] in *.
  destruct S as (R1 & _ & _ & K1 & _). destruct (IH R1 Hr) as [R2 K2]. split; [exact R2 | constructor; assumption].
Qed.

Lemma stop_rel_gen x a : Rel_gen x a ->
  let '(x', ob) := step x OStop in
  ob = ObsRes 0%N false /\
  match a with
  | None => names (wfs (s_w x')) = []
  | Some (closed, cur) => exists w wr, wfs (s_w x') = wfs w /\ Inv w wr closed /\ wpend wr = [] /\ cur_view w wr = cur
  end.
Proof.
  intros R0. rewrite (step_sync_rel_gen x a OStop R0). destruct R0 as [Ht [Ha R]]. cbn [sync_step]. destruct a as [[closed cur]|].
  - destruct R as [wr [roll [Es [I [V [Z RS]]]]]]. rewrite Es. unfold st_gen. cbn [f_poisoned].
    rewrite drop_state_quiet by exact (inv_quiet _ _ _ I). split; [reflexivity|].
    destruct (flushed_inv _ _ _ I) as [I1 V1].
    exists (flushed (s_w x) wr), (emptied wr). split; [reflexivity|]. split; [exact I1|]. split; [reflexivity | congruence].
  - destruct R as [Es [Q [Hn Hi]]]. rewrite Es. cbn [new_flw f_poisoned drop_state shutdown_state f_inner s_w]. split; [reflexivity | exact Hn].
Qed.
End Run.

(* with a size criterion the abstract run is a function of the operations alone: all that is needed of a step is its
   rotation flag *)
Lemma run_size_of_steps (Rel_gen : sys -> aview -> Prop) m :
  (forall x a o, Rel_gen x a -> basic_op o ->
     let '(x', ob) := step x o in
     Rel_gen x' (a_step a o (rot_of ob))
     /\ (forall b, (o = OWrite b \/ o = OPlain b) ->
           ob = ObsRes 0 (m <? N.of_nat (length (match a with Some (_, cu) => cu | None => [] end)))%N)) ->
  forall ops x a, Rel_gen x a -> Forall basic_op ops -> a_run a ops (snd (run x ops)) = s_run m a ops.
Proof.
  intros Step. induction ops as [|o r IH]; intros x a R Hb; [reflexivity|].
  cbn [run] in *. inversion Hb as [|o' r' Ho Hr]; subst.
  pose proof (Step x a o R Ho) as S. destruct (step x o) as [x1 ob].
  specialize (IH x1 (a_step a o (rot_of ob))). destruct (run x1 r) as [x2 obs]. cbn [fst snd a_run s_run] in *.
  destruct S as [R1 C1].
  assert (Erot : a_step a o (rot_of ob) = a_step a o (m <? N.of_nat (length (cur_of a)))%N).
  { destruct o; try reflexivity.
    - rewrite (C1 b (or_introl eq_refl)). reflexivity.
    - rewrite (C1 b (or_intror eq_refl)). reflexivity. }
  rewrite <- Erot. apply IH; assumption.
Qed.

Lemma cleanup_k c crit k w wr closed lo mid :
  numkcfg c crit k -> kside c k (length closed) -> NumKInv c w wr closed lo mid ->
  exists w', cleanup_impl c w k IFNum None = (Ok tt, w') /\ same_env w w'
    /\ NumKInv c w' wr closed (knew_lo k lo (length closed)) (knew_mid k mid (length closed))
    /\ cur_view w' wr = cur_view w wr.
Proof.
  intros (Hrot & Hts & Hlink & Has & Hbg) Hside I. pose proof I as [Q W Hc Hcp KD Hwr Hcap].
  unfold kside, knew_lo, knew_mid in *. destruct (klim k) as [[n m]|] eqn:Ek.
  - pose proof Hside as Hsfx.
    destruct (cleanup_numbers c w k n m closed lo mid Hts Hsfx Ek Q W KD) as (w' & E & S & W' & KD' & SC).
    destruct (same_at_content _ _ _ _ SC Hc) as [Lc' Ic'].
    exists w'. split; [exact E|]. split; [exact S|]. split.
    + constructor; auto; [apply S | rewrite Ic'; exact Hcp].
    + unfold cur_view, content. rewrite Ic'. reflexivity.
  - apply klim_none in Ek. subst k. exists w. split; [reflexivity|]. split; [apply same_env_refl; exact Q|]. split; [exact I | reflexivity].
Qed.

(* ---- the steps on the directory, for files named by a function (NumCleanupNames.v): the file being written is cn; a
   rotation renames it to nmf L, L = number of closed files, and creates cn anew ---- *)
Lemma len_snoc {A} (l : list A) x : length (l ++ [x]) = S (length l).
Proof. exact (last_length l x). Qed.

Lemma gdir_rotate_cur nmf cn f closed lo mid old pend now :
  rnames nmf cn (S (length closed)) ->
  fs_wf f -> gdir nmf cn f closed lo mid -> lookup f cn = Some old -> plain (inode f old) ->
  lookup f (nmf (length closed)) = None /\
  exists f1, rename f cn (nmf (length closed)) = Some f1 /\ lookup f1 cn = None /\
    let f3 := append_ino (fst (create_file f1 cn 0%N now)) old pend in
    let new := snd (create_file f1 cn 0%N now) in
    fs_wf f3 /\ lookup f3 cn = Some new /\ inode f3 new = fresh_file now
    /\ gdir nmf cn f3 (closed ++ [content f old ++ pend]) lo mid.
Proof.
  intros GN W KD Hc Hcp. pose proof KD as [Hle Hnd Hp Ha Hon]. set (L := length closed) in *.
  assert (Ht : lookup f (nmf L) = None).
  { destruct (lookup f (nmf L)) as [j|] eqn:E; [|reflexivity]. exfalso.
    destruct (Hon _ _ E) as [E1|[(i & Hi & E1)|(i & Hi & E1)]].
    - exact (proj1 (rn_cn _ _ _ GN L ltac:(lia)) E1).
    - apply (rn_inj _ _ _ GN) in E1; lia.
    - symmetry in E1. apply (rn_gz _ _ _ GN) in E1; [exact E1 | lia | lia]. }
  split; [exact Ht|].
  destruct (rotate_fs_spec f cn (nmf L) old pend now W (fun E => proj1 (rn_cn _ _ _ GN L ltac:(lia)) (eq_sym E)) Hc Ht) as [f1 [Er R]].
  cbn zeta in R. destruct R as [L1c [Hino1 [W3 [Hnew [L3c [L3t [L3o [Hlen [Inew [Iold Ioth]]]]]]]]]].
  exists f1. split; [exact Er|]. split; [exact L1c|]. cbn zeta.
  set (new := snd (create_file f1 cn 0%N now)) in *.
  set (f3 := append_ino (fst (create_file f1 cn 0%N now)) old pend) in *.
  split; [exact W3|]. split; [exact L3c|]. split; [exact Inew|].
  pose proof (wf_bound _ W _ _ Hc) as Hold.
  assert (Keep : forall x j, x <> cn -> x <> nmf L -> lookup f x = Some j ->
                 lookup f3 x = Some j /\ inode f3 j = inode f j).
  { intros x j H1 H2 Lj. split; [rewrite L3o by assumption; exact Lj|]. apply Ioth.
    - pose proof (wf_bound _ W _ _ Lj). rewrite Hnew. lia.
    - intros ->. apply H1. exact (wf_inj _ W _ _ _ Lj Hc). }
  constructor.
  - rewrite len_snoc. fold L. lia.
  - apply nd_append. apply nd_create; [exact L1c|]. eapply nd_rename; eassumption.
  - intros i Hi. rewrite len_snoc in Hi. fold L in Hi.
    destruct (Nat.eq_dec i L) as [->|Hne].
    + exists old. split; [exact L3t|]. split.
      * rewrite Iold. exact Hcp.
      * unfold content at 1. rewrite Iold. cbn [with_data fdata]. unfold L. rewrite app_nth2, Nat.sub_diag by lia. reflexivity.
    + destruct (Hp i ltac:(lia)) as (j & Lj & Pj & Cj).
      destruct (Keep (nmf i) j) as [Lj' Ij']; [exact (proj1 (rn_cn _ _ _ GN i ltac:(lia))) | intros E; apply (rn_inj _ _ _ GN) in E; lia | exact Lj|].
      exists j. split; [exact Lj'|]. unfold content. rewrite Ij'. split; [exact Pj|]. rewrite app_nth1 by (fold L; lia). exact Cj.
  - intros i Hi. destruct (Ha i Hi) as (j & Lj & Dj & Gj & Fj).
    destruct (Keep (gzf nmf i) j) as [Lj' Ij']; [exact (proj2 (rn_cn _ _ _ GN i ltac:(lia))) | apply (rn_gz _ _ _ GN); lia | exact Lj|].
    exists j. rewrite Ij'. split; [exact Lj'|]. split; [|auto]. rewrite app_nth1 by (fold L; lia). exact Dj.
  - intros x j Hx. rewrite len_snoc. fold L.
    destruct (beq_spec x cn) as [->|Hn1]; [left; reflexivity|].
    destruct (beq_spec x (nmf L)) as [->|Hn2].
    + right. left. exists L. split; [lia | reflexivity].
    + rewrite L3o in Hx by assumption. destruct (Hon _ _ Hx) as [E|[(i & Hi & E)|(i & Hi & E)]]; [contradiction| |].
      * right. left. exists i. split; [lia | exact E].
      * right. right. exists i. split; [lia | exact E].
Qed.

Lemma gdir_append_cur nmf cn f closed lo mid old x :
  rnames nmf cn (length closed) -> fs_wf f -> lookup f cn = Some old ->
  gdir nmf cn f closed lo mid -> gdir nmf cn (append_ino f old x) closed lo mid.
Proof.
  intros GN W Hc [Hle Hnd Hp Ha Hon].
  pose proof (wf_bound _ W _ _ Hc) as Hold.
  assert (Oth : forall n j, n <> cn -> lookup f n = Some j -> inode (append_ino f old x) j = inode f j).
  { intros n j Hn Lj. rewrite inode_append by assumption. destruct (Nat.eqb_spec j old) as [->|_]; [|reflexivity].
    exfalso. apply Hn. exact (wf_inj _ W _ _ _ Lj Hc). }
  constructor.
  - exact Hle.
  - apply nd_append. exact Hnd.
  - intros i Hi. destruct (Hp i Hi) as (j & Lj & Pj & Cj). exists j. rewrite lookup_append. split; [exact Lj|].
    unfold content. rewrite (Oth _ _ (proj1 (rn_cn _ _ _ GN i ltac:(lia))) Lj). auto.
  - intros i Hi. destruct (Ha i Hi) as (j & Lj & R). exists j. rewrite lookup_append. split; [exact Lj|].
    rewrite (Oth _ _ (proj2 (rn_cn _ _ _ GN i ltac:(lia))) Lj). exact R.
  - intros n j. rewrite lookup_append. apply Hon.
Qed.

Lemma gdir_only_cur nmf cn now :
  let f := {| names := [(cn, 0)]; inodes := [fresh_file now] |} in
  gdir nmf cn f [] 0 0 /\ lookup f cn = Some 0 /\ fs_wf f /\ inode f 0 = fresh_file now.
Proof.
  cbn zeta. set (f := {| names := [(cn, 0)]; inodes := [fresh_file now] |}).
  assert (Lc : lookup f cn = Some 0) by (unfold lookup; cbn; rewrite beq_refl; reflexivity).
  split; [|split; [exact Lc|split; [|reflexivity]]].
  - constructor.
    + cbn [length]. lia.
    + unfold nodup_names, dir_names. cbn [names map fst]. constructor; [intros [] | constructor].
    + cbn [length]. intros i Hi. lia.
    + intros i Hi. lia.
    + intros n j. unfold lookup; cbn. destruct (beq_spec cn n) as [<-|]; [|discriminate]. intros _. left. reflexivity.
  - split.
    + intros a j. unfold lookup; cbn. destruct (beq cn a); [|discriminate]. intros E; injection E as <-. lia.
    + intros a b j. unfold lookup; cbn. destruct (beq_spec cn a), (beq_spec cn b); try discriminate. congruence.
Qed.

Lemma rnames_numbers c L : rnames (rname c) (cname c) L.
Proof.
  constructor.
  - intros i j _ _. apply rname_inj.
  - intros i _. split; [apply rname_not_cname | apply gname_not_cname].
  - intros i j _ _. apply gname_ne_rname.
Qed.

Lemma kdir_rotate c f closed lo mid old pend now :
  fs_wf f -> kdir c f closed lo mid -> lookup f (cname c) = Some old -> plain (inode f old) ->
  lookup f (rname c (length closed)) = None /\
  exists f1, rename f (cname c) (rname c (length closed)) = Some f1 /\ lookup f1 (cname c) = None /\
    let f3 := append_ino (fst (create_file f1 (cname c) 0%N now)) old pend in
    let new := snd (create_file f1 (cname c) 0%N now) in
    fs_wf f3 /\ lookup f3 (cname c) = Some new /\ inode f3 new = fresh_file now
    /\ kdir c f3 (closed ++ [content f old ++ pend]) lo mid.
Proof.
  intros W KD Hc Hcp. destruct (gdir_rotate_cur (rname c) (cname c) f closed lo mid old pend now (rnames_numbers c _) W
                                 (proj1 (kdir_gdir _ _ _ _ _) KD) Hc Hcp) as (Ht & f1 & Er & L1 & W3 & L3 & I3 & KD3).
  split; [exact Ht|]. exists f1. split; [exact Er|]. split; [exact L1|]. cbn zeta.
  split; [exact W3|]. split; [exact L3|]. split; [exact I3|]. apply kdir_gdir. exact KD3.
Qed.

(* ---- one rotation ---- *)
Lemma mount_next_rotates_k c crit k w wr closed roll force :
  numkcfg c crit k -> kside c k (S (length closed)) ->
  NumKInv c w wr closed (k_lo k (length closed)) (k_mid k (length closed)) ->
  force || rotation_necessary w roll = true ->
  exists w' wr' roll',
    mount_next c w (Active (Some (mk_rsk k (NSNumR (N.of_nat (length closed))) roll)) wr (cname c)) force
      = (Ok tt, w', Active (Some (mk_rsk k (NSNumR (N.of_nat (length (closed ++ [cur_view w wr])))) roll')) wr' (cname c))
    /\ NumKInv c w' wr' (closed ++ [cur_view w wr]) (k_lo k (S (length closed))) (k_mid k (S (length closed)))
    /\ cur_view w' wr' = [] /\ roll_size_ok roll' 0 /\ same_env w w'
    /\ (forall m cur, roll = RSize m cur -> exists cur', roll' = RSize m cur')
    /\ roll' = roll_reset roll (wnow w).
Proof.
  intros Hcfg Hside I Hnec. pose proof Hcfg as (Hrot & Hts & Hlink & Has & Hbg).
  pose proof I as [Q W Hc Hcp KD Hwr Hcap].
  destruct (kdir_rotate c (wfs w) closed _ _ (wino wr) (wpend wr) (wnow w) W KD Hc Hcp) as (Ht & f1 & Er & L1c & R).
  cbn zeta in R. destruct R as (W3 & L3c & Inew & KD3).
  (* rCURRENT is renamed to the next number *)
  assert (N : index_for_rcurrent c w (Some (N.of_nat (length closed))) true = (Ok (N.of_nat (length closed) + 1)%N, set_fs w f1)).
  { unfold index_for_rcurrent. rewrite !(name_of_fixed c w) by assumption.
    fold (nm c cur_infix) (nm c (number_infix (N.of_nat (length closed)))). fold (cname c) (rname c (length closed)).
    rewrite (p_rename_quiet_eq _ _ _ _ Q Er). reflexivity. }
  pose proof (mount_next_fresh c w (mk_rsk k (NSNumR (N.of_nat (length closed))) roll) wr (cname c) force
                _ _ _ Hnec (ex_intro _ _ (conj N (conj eq_refl eq_refl))) Q Hlink) as M.
  rewrite (name_of_fixed c (set_fs w f1)) in M by assumption. fold (nm c cur_infix) (cname c) in M.
  rewrite (M L1c). clear M. cbn [mk_rsk rs_roll rs_naming rs_cleanup rs_bg].
  unfold cleanup_or_queue. cbn [ns_filter ns_writes_direct].
  set (w3 := flushed (set_fs (set_fs w f1) (fst (create_file (wfs (set_fs w f1)) (cname c) 0%N (wnow (set_fs w f1))))) wr).
  set (wr' := {| wino := length (inodes (wfs (set_fs w f1))); wpend := []; wcap := c_cap c |}).
  assert (I3 : NumKInv c w3 wr' (closed ++ [cur_view w wr]) (k_lo k (length closed)) (k_mid k (length closed))).
  { constructor.
    - exact Q.
    - exact W3.
    - exact L3c.
    - rewrite (Inew : inode (wfs w3) (wino wr') = _). split; reflexivity.
    - exact KD3.
    - apply wr_ok_nil.
    - reflexivity. }
  assert (Elen : length (closed ++ [cur_view w wr]) = S (length closed)) by (rewrite app_length; cbn [length]; lia).
  assert (Hside' : kside c k (length (closed ++ [cur_view w wr]))) by (rewrite Elen; exact Hside).
  destruct (cleanup_k c crit k w3 wr' _ _ _ Hcfg Hside' I3) as (w4 & Ecl & S4 & I4 & V4).
  rewrite Ecl. rewrite Elen, knew_lo_step, knew_mid_step in I4.
  exists w4, wr', (roll_reset roll (wnow w)).
  split. { rewrite (reset_size_and_date_born w3 roll _ _ (file_of_lookup _ _ _ L3c)), Inew, Elen.
           replace (N.of_nat (S (length closed))) with (N.of_nat (length closed) + 1)%N by lia. reflexivity. }
  split; [exact I4|].
  split. { rewrite V4. unfold cur_view, content. rewrite (Inew : inode (wfs w3) (wino wr') = _). reflexivity. }
  split. { destruct roll; cbn; auto. }
  split; [exact (same_env_trans _ _ _ (same_env_set_fs w _ Q) S4)|].
  split; [intros m cur ->; cbn; eauto | reflexivity].
Qed.

(* ---- appending to the current inode keeps the invariant ---- *)
Lemma numkinv_append c w w' wr wr' closed lo mid x :
  NumKInv c w wr closed lo mid -> wfs w' = append_ino (wfs w) (wino wr) x -> same_env w w' ->
  wino wr' = wino wr -> wcap wr' = wcap wr -> wr_ok wr' ->
  NumKInv c w' wr' closed lo mid /\ content (wfs w') (wino wr') = content (wfs w) (wino wr) ++ x.
Proof.
  intros [Q W Hc Hcp KD Hwr Hcap] F SE Ei Ec Hok.
  pose proof (wf_bound _ W _ _ Hc) as Hold.
  split.
  - constructor.
    + exact (proj1 SE).
    + rewrite F. apply wf_append. exact W.
    + rewrite F, lookup_append, Ei. exact Hc.
    + rewrite F, Ei, inode_append, Nat.eqb_refl by assumption. exact Hcp.
    + rewrite F. apply kdir_gdir. apply (gdir_append_cur (rname c) (cname c)); [apply rnames_numbers | exact W | exact Hc|].
      apply kdir_gdir. exact KD.
    + exact Hok.
    + congruence.
  - rewrite F, Ei, content_append, Nat.eqb_refl by assumption. reflexivity.
Qed.

(* ---- the first write initialises the writer on the empty directory; the initial cleanup finds nothing ---- *)
Lemma initialize_empty_k c crit k w :
  numkcfg c crit k -> kside c k 0 -> quiet w -> names (wfs w) = [] -> inodes (wfs w) = [] ->
  exists w' wr roll,
    initialize c w = (Ok (Active (Some (mk_rsk k (NSNumR 0) roll)) wr (cname c)), w')
    /\ NumKInv c w' wr [] 0 0 /\ cur_view w' wr = [] /\ roll_size_ok roll 0 /\ same_env w w'
    /\ (forall m, crit = CSize m -> roll = RSize m 0)
    /\ roll = roll_init crit (wnow w).
Proof.
  intros Hcfg Hside Q Hn Hi. pose proof Hcfg as (Hrot & Hts & Hlink & Has & Hbg).
  unfold initialize. rewrite Hrot. unfold init_naming, index_for_rcurrent, with_listing.
  rewrite tick_quiet by assumption.
  unfold get_highest_index, list_log_gz. rewrite existing_rot_empty by assumption. cbn [filter_map_opt max_opt bind].
  assert (E0 : (if negb (c_append c)
                then let '(r, w1) := p_rename w (name_of c w (Some cur_infix)) (name_of c w (Some (number_infix 0))) in
                     match r with ROk => (Ok (0 + 1)%N, w1) | RNotFound => (Ok 0%N, w1) | RErr => (Err, w1) end
                else (Ok 0%N, w)) = (Ok 0%N, w)).
  { destruct (negb (c_append c)); [|reflexivity].
    pose proof (p_rename_quiet w (name_of c w (Some cur_infix)) (name_of c w (Some (number_infix 0))) Q) as PR.
    rewrite rename_none in PR by (apply lookup_empty; assumption). rewrite PR. reflexivity. }
  rewrite E0. cbn [bind].
  rewrite (open_log_file_fresh c w _ Q Hlink) by (apply lookup_empty; exact Hn). cbn [bind].
  rewrite (name_of_fixed c w) by assumption. fold (nm c cur_infix) (cname c).
  unfold create_file. cbn [fst]. rewrite Hn, Hi. cbn [length app].
  set (w2 := set_fs w {| names := [(cname c, 0)]; inodes := [fresh_file (wnow w)] |}).
  set (wr := {| wino := 0; wpend := []; wcap := c_cap c |}).
  destruct (gdir_only_cur (rname c) (cname c) (wnow w)) as (G0 & Lc & W0 & I0).
  rewrite (roll_new_quiet w2 crit _ _ _ Q (file_of_lookup _ _ _ Lc)), I0, roll_of_fresh. cbn [bind].
  assert (I2 : NumKInv c w2 wr [] 0 0).
  { constructor.
    - exact Q.
    - exact W0.
    - exact Lc.
    - split; reflexivity.
    - apply kdir_gdir. exact G0.
    - apply wr_ok_nil.
    - reflexivity. }
  (* the initial cleanup *)
  assert (Ecl : forall d, match k with KNever => (Ok tt, w2) | _ => cleanup_impl c w2 k (ns_filter (NSNumR 0)) (if naming_writes_direct NNumbers then Some d else None) end
                = cleanup_impl c w2 k IFNum None) by (intros d; destruct k; reflexivity).
  rewrite Ecl. clear Ecl.
  destruct (cleanup_k c crit k w2 wr [] 0 0 Hcfg Hside I2) as (w4 & E4 & S4 & I4 & V4). rewrite E4. cbn [bind].
  assert (Ebg : match k with KNever => false | _ => c_bg c end = false) by (destruct k; auto).
  rewrite Ebg.
  assert (Z0 : knew_lo k 0 (length (@nil bytes)) = 0 /\ knew_mid k 0 (length (@nil bytes)) = 0).
  { unfold knew_lo, knew_mid. destruct (klim k) as [[n m]|]; cbn [length]; split; lia. }
  destruct Z0 as [Z1 Z2]. rewrite Z1, Z2 in I4.
  exists w4, wr, (roll_init crit (wnow w)). split; [reflexivity|]. split; [exact I4|].
  split; [rewrite V4; reflexivity|].
  split; [apply roll_init_size_ok|]. split; [exact (same_env_trans _ _ _ (same_env_set_fs w _ Q) S4)|].
  split; [intros m ->; reflexivity | reflexivity].
Qed.

Lemma numkinv_env c w w' wr closed lo mid : NumKInv c w wr closed lo mid -> wfs w' = wfs w -> quiet w' -> NumKInv c w' wr closed lo mid.
Proof. intros [Q W Hc Hcp KD Hwr Hcap] F Q'. constructor; try rewrite F; assumption. Qed.


Definition KInv (c : config) (k : cleanup) (w : world) (wr : writer) (closed : list bytes) : Prop :=
  NumKInv c w wr closed (k_lo k (length closed)) (k_mid k (length closed)).

Lemma kinv_rotates c crit k : numkcfg c crit k ->
  rotates_spec c k (kside c k 0) (KInv c k) (fun n => NSNumR (N.of_nat n)) (fun _ => cname c).
Proof.
  intros Hcfg w wr closed roll force Hs I Hn.
  destruct (mount_next_rotates_k c crit k w wr closed roll force Hcfg Hs I Hn) as (w' & wr' & roll' & E & I' & R).
  exists w', wr', roll'. split; [exact E|]. split; [|exact R]. unfold KInv. rewrite app_length, Nat.add_1_r. exact I'.
Qed.
Lemma kinv_init c crit k : numkcfg c crit k ->
  init_spec c crit k (kside c k 0) (KInv c k) (fun n => NSNumR (N.of_nat n)) (fun _ => cname c).
Proof.
  intros Hcfg w Hs Q Hn Hi. destruct (initialize_empty_k c crit k w Hcfg Hs Q Hn Hi) as (w' & wr & roll & E & I & R).
  exists w', wr, roll. split; [exact E|]. split; [|exact R]. unfold KInv. cbn [length]. rewrite k_lo_0, k_mid_0. exact I.
Qed.

Lemma write_active_k c crit k w wr closed roll b :
  numkcfg c crit k -> NumKInv c w wr closed (k_lo k (length closed)) (k_mid k (length closed)) ->
  roll_size_ok roll (length (cur_view w wr)) ->
  let rot := rotation_necessary w roll in
  (rot = true -> kside c k (S (length closed))) ->
  exists w' wr' roll' closed',
    write_buffer (st_ofk c k (length closed) roll wr) w b = (Ok tt, w', st_ofk c k (length closed') roll' wr', rot)
    /\ NumKInv c w' wr' closed' (k_lo k (length closed')) (k_mid k (length closed'))
    /\ roll_size_ok roll' (length (cur_view w' wr')) /\ same_env w w'
    /\ (closed', cur_view w' wr') = (if rot then (closed ++ [cur_view w wr], b) else (closed, cur_view w wr ++ b))
    /\ (forall m cur, roll = RSize m cur -> exists cur', roll' = RSize m cur')
    /\ roll' = increase_size (if rot then roll_reset roll (wnow w) else roll) (N.of_nat (length b)).
Proof.
  intros Hcfg. exact (write_active_gen c k (kside c k 0) (KInv c k) (fun n => NSNumR (N.of_nat n)) (fun _ => cname c)
    (fun w wr cl => nk_quiet c w wr cl _ _) (fun w wr cl => nk_wr c w wr cl _ _)
    (fun w w' wr wr' cl x => numkinv_append c w w' wr wr' cl _ _ x) (kinv_rotates c crit k Hcfg) w wr closed roll b).
Qed.

Lemma flush_active_k c k w wr closed lo mid roll :
  NumKInv c w wr closed lo mid ->
  exists w' wr', flush_state (st_ofk c k (length closed) roll wr) w = (true, w', st_ofk c k (length closed) roll wr')
    /\ NumKInv c w' wr' closed lo mid /\ cur_view w' wr' = cur_view w wr /\ wpend wr' = [] /\ same_env w w'.
Proof.
  exact (flush_active_gen c k (fun w wr cl => NumKInv c w wr cl lo mid) (fun n => NSNumR (N.of_nat n)) (fun _ => cname c)
    (fun w wr cl => nk_quiet c w wr cl lo mid) (fun w w' wr wr' cl x => numkinv_append c w w' wr wr' cl lo mid x) w wr closed roll).
Qed.

Lemma shutdown_active_k c k w wr closed lo mid roll : NumKInv c w wr closed lo mid -> wacts w = 0 ->
  exists w' wr', shutdown_state (st_ofk c k (length closed) roll wr) w = (w', st_ofk c k (length closed) roll wr')
    /\ NumKInv c w' wr' closed lo mid /\ cur_view w' wr' = cur_view w wr /\ wpend wr' = [] /\ wacts w' = 0.
Proof.
  exact (shutdown_active_gen c k (fun w wr cl => NumKInv c w wr cl lo mid) (fun n => NSNumR (N.of_nat n)) (fun _ => cname c)
    (fun w wr cl => nk_quiet c w wr cl lo mid) (fun w w' wr wr' cl x => numkinv_append c w w' wr wr' cl lo mid x) w wr closed roll).
Qed.

Lemma write_buffer_rotflag c k L roll wr w b :
  snd (write_buffer (st_ofk c k L roll wr) w b) = rotation_necessary w roll.
Proof. exact (write_buffer_rotflag_gen c k (fun n => NSNumR (N.of_nat n)) (fun _ => cname c) L roll wr w b). Qed.

Definition RelK (c : config) (crit : criterion) (k : cleanup) (x : sys) (a : aview) : Prop :=
  s_tl x = [] /\ wacts (s_w x) = 0 /\
  match a with
  | None => s_flw x = Some (new_flw c) /\ quiet (s_w x) /\ names (wfs (s_w x)) = [] /\ inodes (wfs (s_w x)) = []
  | Some (closed, cur) =>
    exists wr roll, s_flw x = Some (st_ofk c k (length closed) roll wr)
      /\ NumKInv c (s_w x) wr closed (k_lo k (length closed)) (k_mid k (length closed))
      /\ cur_view (s_w x) wr = cur /\ roll_size_ok roll (length cur)
      /\ (forall m, crit = CSize m -> exists z, roll = RSize m z)
  end.


Lemma step_sync_rel_k c crit k x a o : numkcfg c crit k -> RelK c crit k x a -> step x o = sync_step x o.
Proof.
  intros (_ & Hts & _ & Ha & _).
  exact (step_sync_rel_gen c crit k (KInv c k) (fun n => NSNumR (N.of_nat n)) (fun _ => cname c) Hts Ha x a o).
Qed.

Lemma step_rel_k0 c crit k x a o :
  numkcfg c crit k -> kside c k 0 -> RelK c crit k x a -> basic_op o ->
  let '(x', ob) := step x o in
  RelK c crit k x' (a_step a o (rot_of ob))
  /\ (forall b m, (o = OWrite b \/ o = OPlain b) -> crit = CSize m ->
        ob = ObsRes 0 (m <? N.of_nat (length (match a with Some (_, cu) => cu | None => [] end)))%N)
  /\ trace_ok crit x x' o ob
  /\ obs_ok ob /\ werrs (s_w x') = werrs (s_w x).
Proof.
  intros Hcfg. pose proof Hcfg as (_ & Hts & _ & Ha & _).
  exact (step_rel_gen c crit k (kside c k 0) (KInv c k) (fun n => NSNumR (N.of_nat n)) (fun _ => cname c) Hts Ha
    (fun w wr cl => nk_quiet c w wr cl _ _) (fun w wr cl => nk_wr c w wr cl _ _)
    (fun w w' wr wr' cl x => numkinv_append c w w' wr wr' cl _ _ x)
    (fun w w' wr cl => numkinv_env c w w' wr cl _ _) (kinv_rotates c crit k Hcfg) (kinv_init c crit k Hcfg) x a o).
Qed.

Lemma write_rel_k c crit k x a b :
  numkcfg c crit k -> RelK c crit k x a ->
  exists s, s_flw x = Some s /\ f_poisoned s = false /\
    let '(r, w', s', rot) := write_buffer s (s_w x) b in
    kside c k (nclosed (a_step a (OWrite b) rot)) ->
    r = Ok tt
    /\ RelK c crit k {| s_flw := Some s'; s_w := w'; s_tl := []; s_dead := s_dead x |} (a_step a (OWrite b) rot)
    /\ (forall m, crit = CSize m ->
          rot = (m <? N.of_nat (length (match a with Some (_, cu) => cu | None => [] end)))%N)
    /\ (rot = flag_of crit (s_w x) (roll_of_sys x) (OWrite b)
        /\ roll_of_flw s' = ro_step crit (wnow (s_w x)) (roll_of_sys x) (OWrite b) rot
        /\ wnow w' = wnow (s_w x) /\ woff w' = woff (s_w x)).
Proof.
  intros Hcfg R.
  destruct (write_rel_gen c crit k (kside c k 0) (KInv c k) (fun n => NSNumR (N.of_nat n)) (fun _ => cname c)
    (fun w wr cl => nk_quiet c w wr cl _ _) (fun w wr cl => nk_wr c w wr cl _ _)
    (fun w w' wr wr' cl x => numkinv_append c w w' wr wr' cl _ _ x) (kinv_rotates c crit k Hcfg) (kinv_init c crit k Hcfg)
    x a b R) as (s & Es & Hp & WR).
  exists s. split; [exact Es|]. split; [exact Hp|].
  destruct (write_buffer s (s_w x) b) as [[[r w'] s'] rot]. intros Hside. destruct (WR Hside) as (A & B & C & D & _). auto.
Qed.

Lemma step_rel_k c crit k x a o :
  numkcfg c crit k -> RelK c crit k x a -> basic_op o ->
  let '(x', ob) := step x o in
  kside c k (nclosed (a_step a o (rot_of ob))) ->
  RelK c crit k x' (a_step a o (rot_of ob))
  /\ (forall b m, (o = OWrite b \/ o = OPlain b) -> crit = CSize m ->
        ob = ObsRes 0 (m <? N.of_nat (length (match a with Some (_, cu) => cu | None => [] end)))%N)
  /\ trace_ok crit x x' o ob.
Proof.
  intros Hcfg R Hb. pose proof (fun Hs => step_rel_k0 c crit k x a o Hcfg Hs R Hb) as S.
  destruct (step x o) as [x' ob]. intros Hs. destruct (S Hs) as (R' & C & T & _). auto.
Qed.

Lemma run_rel_k c crit k : numkcfg c crit k -> forall ops x a, RelK c crit k x a -> Forall basic_op ops ->
  kside c k (nclosed (a_run a ops (snd (run x ops)))) ->
  RelK c crit k (fst (run x ops)) (a_run a ops (snd (run x ops))).
Proof.
  intros Hcfg ops x a R Hb Hside. pose proof Hcfg as (_ & Hts & _ & Ha & _).
  exact (proj1 (run_rel_gen c crit k (kside c k 0) (KInv c k) (fun n => NSNumR (N.of_nat n)) (fun _ => cname c) Hts Ha
    (fun w wr cl => nk_quiet c w wr cl _ _) (fun w wr cl => nk_wr c w wr cl _ _)
    (fun w w' wr wr' cl x => numkinv_append c w w' wr wr' cl _ _ x)
    (fun w w' wr cl => numkinv_env c w w' wr cl _ _) (kinv_rotates c crit k Hcfg) (kinv_init c crit k Hcfg) Hside ops x a R Hb)).
Qed.

(* with a size criterion the abstract run is a function of the operations alone *)
Lemma run_size_k0 c k m : numkcfg c (CSize m) k -> kside c k 0 -> forall ops x a, RelK c (CSize m) k x a -> Forall basic_op ops ->
  a_run a ops (snd (run x ops)) = s_run m a ops.
Proof.
  intros Hcfg Hside. apply (run_size_of_steps (RelK c (CSize m) k) m). intros x a o R Ho.
  pose proof (step_rel_k0 c (CSize m) k x a o Hcfg Hside R Ho) as S. destruct (step x o) as [x1 ob].
  destruct S as (R1 & C1 & _). split; [exact R1|]. intros b Hw. exact (C1 b m Hw eq_refl).
Qed.

Lemma run_size_k c k m : numkcfg c (CSize m) k -> forall ops x a, RelK c (CSize m) k x a -> Forall basic_op ops ->
  kside c k (nclosed (a_run a ops (snd (run x ops)))) ->
  a_run a ops (snd (run x ops)) = s_run m a ops.
Proof. intros Hcfg ops x a R Hb Hside. exact (run_size_k0 c k m Hcfg Hside ops x a R Hb). Qed.

(* ------------------------------------------------------------------ stop: what is left in the directory *)
Definition kreader_view (c : config) (f : fs) (closed : list bytes) (cur : bytes) (lo mid : nat) : Prop :=
  kdir c f closed lo mid /\ exists j, lookup f (cname c) = Some j /\ plain (inode f j) /\ content f j = cur.

Lemma stop_rel_k c crit k x a : numkcfg c crit k -> RelK c crit k x a ->
  let '(x', _) := step x OStop in
  match a with
  | None => names (wfs (s_w x')) = []
  | Some (closed, cur) => kreader_view c (wfs (s_w x')) closed cur (k_lo k (length closed)) (k_mid k (length closed))
  end.
Proof.
  intros (_ & Hts & _ & Ha & _) R0.
  pose proof (stop_rel_gen c crit k (KInv c k) (fun n => NSNumR (N.of_nat n)) (fun _ => cname c) Hts Ha
    (fun w wr cl => nk_quiet c w wr cl _ _) (fun w w' wr wr' cl x => numkinv_append c w w' wr wr' cl _ _ x) x a R0) as S.
  destruct (step x OStop) as [x' ob]. destruct S as [_ S]. destruct a as [[closed cur]|]; [|exact S].
  destruct S as (w & wr & F & I & P & V). rewrite F. destruct I as [Q W Hc Hcp KD Hwr Hcap]. split; [exact KD|].
  exists (wino wr). split; [exact Hc|]. split; [exact Hcp|]. unfold cur_view in V. rewrite P, app_nil_r in V. exact V.
Qed.

Lemma start_rel_k c crit k t0 off : RelK c crit k (fst (step (sys0 t0 off) (OStart c))) None.
Proof. cbn. repeat split. Qed.

(* a is the reader's view that the run WOULD leave without cleanup (closed files in order, current file): by a_run_flat
   its concatenation is what was written.  The directory left behind holds the current file, the newest n closed files
   as they are and the next m as archives - and nothing else. *)
Theorem numbers_cleanup_stream c crit k t0 off ops :
  numkcfg c crit k -> Forall basic_op ops ->
  let x0 := fst (step (sys0 t0 off) (OStart c)) in
  let a := a_run None ops (snd (run x0 ops)) in
  kside c k (nclosed a) ->
  let f := wfs (s_w (fst (run (sys0 t0 off) (OStart c :: ops ++ [OStop])))) in
  flat a = written ops
  /\ match a with
     | None => names f = []
     | Some (closed, cur) => kreader_view c f closed cur (k_lo k (length closed)) (k_mid k (length closed))
     end.
Proof.
  intros Hcfg Hb x0 a Hside f. unfold f. clear f. cbn [run]. fold x0.
  destruct (step (sys0 t0 off) (OStart c)) as [x0' ob0] eqn:E0. cbn [fst] in x0. subst x0.
  pose proof (start_rel_k c crit k t0 off) as R0. rewrite E0 in R0. cbn [fst] in R0.
  rewrite run_app. pose proof (run_rel_k c crit k Hcfg ops x0' None R0 Hb Hside) as R1. pose proof (run_length ops x0') as Len.
  fold a in R1. unfold a in *. clear a.
  destruct (run x0' ops) as [x1 obs1]. cbn [fst snd] in *.
  pose proof (stop_rel_k c crit k x1 _ Hcfg R1) as S. cbn [run]. destruct (step x1 OStop) as [x2 ob2]. cbn [fst].
  split; [|exact S].
  rewrite (a_run_flat ops None obs1 Hb Len). reflexivity.
Qed.
Print Assumptions numbers_cleanup_stream.
