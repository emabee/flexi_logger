(* Timestamps naming: a new writer on the directory that a KILLED writer left behind (TsKill.v): the closed files and rCURRENT
   (then the restart is the one of TsRestart.v), or the closed files WITHOUT rCURRENT (a kill between the rename and the
   creation of a rotation): the new writer - with or without append - finds nothing to rename or to continue and creates a
   fresh rCURRENT; the closed files keep their names and contents.  Every operation of the new writer succeeds. *)
Require Import FL.Base.Bytes FL.Base.BytesFacts FL.Base.PathName FL.Fs.Fs FL.Fs.FsFacts FL.Time.TsFormat
  FL.Names.FileSpec FL.Names.SortFacts FL.Flw.Model FL.Flw.ModelFacts FL.Flw.NumInv
  FL.Flw.Run FL.Flw.NumRun FL.Flw.NumListing FL.Flw.NumTheorems FL.Flw.NumRestart
  FL.Flw.KillFacts FL.Flw.NumKill FL.Flw.NumKillRestart FL.Flw.NumDInv
  FL.Flw.TsTime FL.Flw.TsNames FL.Flw.TsInv FL.Flw.TsRun FL.Flw.TsTheorems FL.Flw.TsRestartInv FL.Flw.TsRestart
  FL.Flw.KillEnv FL.Flw.TsKill.
From Coq Require Import ZifyN ZifyNat ZifyBool.
Import String.StringSyntax.
Open Scope nat_scope.

(* ------------------------------------------------------------------ initialize on a directory without rCURRENT *)
(* nothing to rename (without append) or to continue (with append): a fresh rCURRENT is created, born now *)
Lemma initialize_nocur_ts c crit e lo hi w keys closed :
  tscfg c crit -> tag_ok c -> years_ok e lo hi -> NoCurInv c e lo w keys closed ->
  (wnow w <= hi)%Z -> (N.of_nat (length closed) <= usize_max)%N ->
  exists w' wr' roll,
    initialize c w = (Ok (Active (Some (mk_rs (NSTs (wnow w) (Some cur_infix) std_fmt) roll)) wr' (cname c)), w')
    /\ TsInvB c e lo w' wr' keys closed (wnow w) /\ cur_view w' wr' = [] /\ same_env w w'.
Proof.
  intros [Hrot [Hts [Hlink _]]] T Y NC Hhi Hmax.
  pose proof NC as [Q W Hnd Hoff Hnc Hlen Hcl Hon Hko Hrg Hlo].
  assert (Yk : forall k, In k keys -> in_years e (fst k)).
  { intros k Ik. apply (years_in e lo hi); [exact Y|]. specialize (Hrg k Ik). lia. }
  assert (Ynow : in_years e (wnow w)) by (apply (years_in e lo hi); [exact Y | lia]).
  assert (Eb : birth_or_now w (cname c) = wnow w) by (unfold birth_or_now, file_of; rewrite Hnc; reflexivity).
  unfold initialize. rewrite Hrot. unfold init_naming.
  assert (E0 : creation_ts_of_current c w cur_infix (negb (c_append c)) None std_fmt = (Ok (wnow w), w)).
  { unfold creation_ts_of_current. rewrite (name_of_fixed c w) by assumption. fold (nm c cur_infix) (cname c).
    cbv zeta. rewrite Eb. destruct (negb (c_append c)); [|reflexivity].
    unfold collision_free. rewrite !tick_quiet by assumption.
    rewrite (fixed_of_fixed0 c w Hts), infix_from_ts_tsx, Hoff.
    pose proof (count_le_length (wnow w) keys) as Hc'.
    rewrite (collision_free_infix_ts c e (woff w) (wfs w) keys (wnow w) (count (wnow w) keys) T Ynow Yk (nocur_dir _ _ _ _ _ _ NC)
               (keys_count keys Hko (wnow w))) by lia.
    pose proof (p_rename_quiet w (cname c) (name_of c w (Some (infix_of e (wnow w, count (wnow w) keys)))) Q) as PR.
    rewrite rename_none in PR by exact Hnc. rewrite PR, Eb. reflexivity. }
  rewrite E0. cbn [bind].
  unfold open_log_file. rewrite (name_of_fixed c w) by assumption. fold (nm c cur_infix) (cname c).
  destruct (open_fresh_quiet c w (cname c) Q Hlink Hnc) as [w2 [Eop [F2 S2]]]. rewrite Eop. cbn [bind].
  assert (Hoff2 : eoff c w2 = e). { rewrite (eoff_same_env c _ _ S2). exact Hoff. }
  destruct (create_nocur c e lo w keys closed NC w2 (proj1 S2) Hoff2 (same_env_now _ _ S2) F2) as [I2 V2].
  assert (RN : exists roll, roll_new w2 crit (c_append c) (cname c) = (Ok roll, w2)).
  { destruct (c_append c).
    - assert (Fo : file_of (wfs w2) (cname c) = Some (inode (wfs w2) (snd (create_file (wfs w) (cname c) 0%N (wnow w))))).
      { unfold file_of. rewrite (ti_cur _ _ _ _ _ _ _ _ (proj1 I2)). reflexivity. }
      destruct (roll_new_append w2 crit (cname c) _ (proj1 S2) Fo) as [roll [Ern _]]. eauto.
    - destruct (roll_new_fresh w2 crit (cname c)) as [roll [Ern _]]. eauto. }
  destruct RN as [roll Ern]. rewrite Ern. cbn [bind].
  eexists w2, _, roll. split; [reflexivity|]. split; [exact I2|]. split; [exact V2 | exact S2].
Qed.

(* ------------------------------------------------------------------ one run on a directory of the kind a kill leaves *)
(* a writer that has not written yet: it has not looked at the directory *)
Definition PreK (c : config) (e lo : Z) (n : nat) (x : sys) (d : kdir) : Prop :=
  envT c e x /\ s_flw x = Some (new_flw c) /\ dir_k c e lo (s_w x) d /\ S (length (closedK d)) <= n.
(* the state of a run: None as long as nothing has been written (the directory is still d0) *)
Definition GRelK (c : config) (e lo : Z) (n : nat) (x : sys) (d0 : kdir) (a : tview) : Prop :=
  match a with None => PreK c e lo n x d0 | Some _ => ActT c e lo n x a end.
Definition gviewK (d0 : kdir) (a : tview) : kdir := match a with None => d0 | Some _ => kd_of a end.

(* the closed files of d are closed files of d', with their keys *)
Definition keepK (d d' : kdir) : Prop := exists mk mc, keysK d' = keysK d ++ mk /\ closedK d' = closedK d ++ mc.
Lemma keepK_refl d : keepK d d.
Proof. exists [], []. rewrite !app_nil_r. split; reflexivity. Qed.
Lemma keepK_trans d1 d2 d3 : keepK d1 d2 -> keepK d2 d3 -> keepK d1 d3.
Proof.
  intros [mk [mc [A B]]] [mk' [mc' [A' B']]]. exists (mk ++ mk'), (mc ++ mc'). rewrite A', B', A, B, !app_assoc. split; reflexivity.
Qed.
Lemma ExtT_keep d d' : ExtT d (Some d') -> keepK (kd_of d) (kd_of (Some d')).
Proof.
  destruct d as [[[[k cl] cu] ts]|]; destruct d' as [[[k' cl'] cu'] ts']; cbn [ExtT kd_of].
  - intros [[-> [-> _]]|[t [mk [mc [-> ->]]]]]; [exists [], []; cbn [keysK closedK]; rewrite !app_nil_r; split; reflexivity|].
    eexists _, _. split; reflexivity.
  - intros _. exists k', cl'. split; reflexivity.
Qed.

Lemma preK_of c e lo n x d : PreK c e lo n x (kd_of d) <-> PreT c e lo n x d.
Proof. unfold PreK, PreT. rewrite dir_k_of, closedK_of. reflexivity. Qed.

(* ---- the first write ---- *)
Lemma first_write_k c crit e lo hi n x d0 b :
  tscfg c crit -> tag_ok c -> years_ok e lo hi -> PreK c e lo n x d0 ->
  (wnow (s_w x) <= hi)%Z -> (N.of_nat n <= usize_max)%N ->
  exists w' s' rot D', write_buffer (new_flw c) (s_w x) b = (Ok tt, w', s', rot)
    /\ ActT c e lo (S n) {| s_flw := Some s'; s_w := w'; s_tl := []; s_dead := s_dead x |} (Some D')
    /\ keepK d0 (kd_of (Some D')) /\ flatT (Some D') = flatK d0 ++ b /\ wnow w' = wnow (s_w x).
Proof.
  intros Hcfg T Y P Hhi Hmax.
  assert (TV : forall d, d0 = kd_of d -> exists w' s' rot D', write_buffer (new_flw c) (s_w x) b = (Ok tt, w', s', rot)
    /\ ActT c e lo (S n) {| s_flw := Some s'; s_w := w'; s_tl := []; s_dead := s_dead x |} (Some D')
    /\ keepK d0 (kd_of (Some D')) /\ flatT (Some D') = flatK d0 ++ b /\ wnow w' = wnow (s_w x)).
  { intros d ->. apply preK_of in P.
    destruct (first_write_ts c crit e lo hi n x d b Hcfg T Y P Hhi Hmax) as [w' [s' [rot [D' [E [A' [X' [F' W']]]]]]]].
    exists w', s', rot, D'. split; [exact E|]. split; [exact A'|]. split; [exact (ExtT_keep d D' X')|].
    split; [rewrite flatK_of; exact F' | exact W']. }
  destruct d0 as [|keys closed cur ts|keys closed].
  - exact (TV None eq_refl).
  - exact (TV (Some (keys, closed, cur, ts)) eq_refl).
  - destruct P as [E0 [Es [NC Hn]]]. cbn [dir_k closedK] in NC, Hn. pose proof E0 as [Ht [Ha [Q Ho]]].
    destruct (initialize_nocur_ts c crit e lo hi (s_w x) keys closed Hcfg T Y NC Hhi ltac:(lia)) as [w1 [wr1 [roll1 [Ei [I1 [V1 S1]]]]]].
    assert (Hhi1 : (wnow w1 <= hi)%Z) by (rewrite (same_env_now _ _ S1); exact Hhi).
    destruct (write_active_tsb c crit e lo hi w1 wr1 keys closed (wnow (s_w x)) roll1 b Hcfg T Y I1 Hhi1 ltac:(lia))
      as [w' [wr' [roll' [keys' [closed' [ts' [E [I' [S' V']]]]]]]]].
    exists w', (st_ts c ts' roll' wr'), (rotation_necessary w1 roll1), (keys', closed', cur_view w' wr', ts').
    split. { rewrite (write_buffer_init c (s_w x) b _ _ _ w1 Ei). exact E. }
    assert (S2 : same_env (s_w x) w') by (eapply same_env_trans; eassumption).
    rewrite V1 in V'. cbn [app] in V'.
    split; [|split; [|split; [|exact (same_env_now _ _ S2)]]].
    + split; [apply (envT_env c e x _ E0); [reflexivity | exact S2]|].
      exists wr', roll'. cbn [s_flw s_w]. split; [reflexivity|]. split; [exact I'|]. split; [reflexivity|].
      destruct (rotation_necessary w1 roll1); injection V' as _ -> _ _; rewrite ?app_length; cbn [length]; lia.
    + cbn [kd_of]. destruct (rotation_necessary w1 roll1); injection V' as -> -> _ _.
      * eexists _, _. cbn [keysK closedK]. split; reflexivity.
      * exists [], []. cbn [keysK closedK]. rewrite !app_nil_r. split; reflexivity.
    + unfold flatK. cbn [closedK ocurK]. rewrite app_nil_r.
      destruct (rotation_necessary w1 roll1); injection V' as -> -> -> ->; cbn [flatT].
      * rewrite concat_app. cbn [concat]. rewrite !app_nil_r. reflexivity.
      * reflexivity.
Qed.

(* ---- one operation of a writer that has written: the observation is a normal result ---- *)
Lemma act_step_ok c crit e lo hi n x D o :
  tscfg c crit -> tag_ok c -> years_ok e lo hi -> ActT c e lo n x (Some D) -> basic_op o -> tick_ok o ->
  (wnow (s_w x) <= hi)%Z -> (N.of_nat n <= usize_max)%N -> obs_ok (snd (step x o)).
Proof.
  intros Hcfg T Y A Hb Htk Hhi Hmax. destruct D as [[[keys closed] cur] ts].
  destruct A as [E0 [wr [roll [Es [I [V Hn]]]]]]. pose proof E0 as [Ht _].
  rewrite (TsRestart.step_sync_cfg c crit x _ o Hcfg Es eq_refl).
  set (s := st_ts c ts roll wr) in *.
  assert (Hp : f_poisoned s = false) by reflexivity.
  destruct o; try contradiction; cbn [sync_step].
  - rewrite Es, Hp, Ht. cbn [app].
    destruct (write_active_tsb c crit e lo hi (s_w x) wr keys closed ts roll b Hcfg T Y I Hhi ltac:(lia))
      as [w' [wr' [roll' [keys' [closed' [ts' [E _]]]]]]].
    fold s in E. rewrite E. reflexivity.
  - rewrite Es, Hp.
    destruct (write_active_tsb c crit e lo hi (s_w x) wr keys closed ts roll b Hcfg T Y I Hhi ltac:(lia))
      as [w' [wr' [roll' [keys' [closed' [ts' [E _]]]]]]].
    fold s in E. rewrite E. reflexivity.
  - rewrite Es, Hp.
    destruct (flush_active_tsb c e lo (s_w x) wr keys closed ts roll I) as [w' [wr' [E _]]].
    fold s in E. rewrite E. reflexivity.
  - rewrite Es, Hp. unfold s. cbn [st_ts f_cfg f_inner].
    destruct (mount_next_rotates_tsb c crit e lo hi (s_w x) wr keys closed ts roll true Hcfg T Y I Hhi ltac:(lia) eq_refl)
      as [w' [wr' [roll' [E _]]]].
    rewrite E. reflexivity.
  - reflexivity.
  - cbn [snd snapshot obs_ok]. exact Logic.I.
Qed.

(* ---- one operation of a run ---- *)
Lemma gstep_k c crit e lo hi n x d0 a o :
  tscfg c crit -> tag_ok c -> years_ok e lo hi -> GRelK c e lo n x d0 a -> basic_op o -> tick_ok o ->
  (wnow (s_w x) <= hi)%Z -> (N.of_nat n <= usize_max)%N ->
  obs_ok (snd (step x o))
  /\ exists a', GRelK c e lo (S n) (fst (step x o)) d0 a' /\ keepK (gviewK d0 a) (gviewK d0 a')
    /\ flatK (gviewK d0 a') = flatK (gviewK d0 a) ++ written [o]
    /\ wnow (s_w (fst (step x o))) = (wnow (s_w x) + dt_of o)%Z.
Proof.
  intros Hcfg T Y G Hb Htk Hhi Hmax. destruct a as [D|].
  - cbn [GRelK gviewK] in *. split; [exact (act_step_ok c crit e lo hi n x D o Hcfg T Y G Hb Htk Hhi Hmax)|].
    destruct (act_step c crit e lo hi n x D o Hcfg T Y G Hb Htk Hhi Hmax) as [D' [A' [X' [F' W']]]].
    exists (Some D'). cbn [GRelK gviewK]. split; [exact A'|]. split; [exact (ExtT_keep (Some D) D' X')|].
    split; [rewrite !flatK_of; exact F' | exact W'].
  - cbn [GRelK gviewK] in *. pose proof G as [[Ht [Ha [Q Ho]]] [Es [D Hn]]].
    rewrite (TsRestart.step_sync_cfg c crit x _ o Hcfg Es eq_refl).
    destruct o; try contradiction; cbn [sync_step dt_of written].
    + (* OWrite *)
      destruct (first_write_k c crit e lo hi n x d0 (s_tl x ++ b) Hcfg T Y G Hhi Hmax) as [w' [s' [rot [D' [E [A' [X' [F' W']]]]]]]].
      rewrite Es. cbn [new_flw f_poisoned]. fold (new_flw c). rewrite E. cbn [fst snd s_w].
      rewrite Ht in F'. cbn [app] in F'. split; [reflexivity|].
      exists (Some D'). cbn [GRelK gviewK]. rewrite app_nil_r. split; [exact A'|]. split; [exact X'|].
      split; [rewrite flatK_of; exact F' | lia].
    + (* OPlain *)
      destruct (first_write_k c crit e lo hi n x d0 b Hcfg T Y G Hhi Hmax) as [w' [s' [rot [D' [E [A' [X' [F' W']]]]]]]].
      rewrite Es. cbn [new_flw f_poisoned]. fold (new_flw c). rewrite E. cbn [fst snd s_w]. rewrite Ht. split; [reflexivity|].
      exists (Some D'). cbn [GRelK gviewK]. rewrite app_nil_r. split; [exact A'|]. split; [exact X'|].
      split; [rewrite flatK_of; exact F' | lia].
    + (* OFlush *)
      rewrite Es. cbn [new_flw f_poisoned flush_state f_inner fst snd s_w]. split; [reflexivity|]. exists None. cbn [GRelK gviewK].
      split; [|split; [apply keepK_refl|]; split; [rewrite app_nil_r; reflexivity | lia]].
      split; [repeat split; try assumption; apply Q|]. split; [reflexivity|]. split; [exact D | lia].
    + (* OTrigger *)
      rewrite Es. cbn [new_flw f_poisoned f_cfg f_inner mount_next with_inner code_of fst snd s_w]. split; [reflexivity|].
      exists None. cbn [GRelK gviewK].
      split; [|split; [apply keepK_refl|]; split; [rewrite app_nil_r; reflexivity | lia]].
      split; [repeat split; try assumption; apply Q|]. split; [reflexivity|]. split; [exact D | lia].
    + (* OTick *)
      cbn [fst snd s_w set_now wnow tick_ok] in *. split; [reflexivity|]. exists None. cbn [GRelK gviewK].
      split; [|split; [apply keepK_refl|]; split; [rewrite app_nil_r; reflexivity | reflexivity]].
      split; [repeat split; try assumption; apply Q|]. split; [exact Es|]. split; [|lia].
      apply (dir_k_later c e lo (s_w x)); [exact D | reflexivity | apply quiet_set_now; exact Q | cbn [s_w set_now wnow]; lia | exact Ho].
    + (* OSnap *)
      cbn [fst snd]. split; [exact Logic.I|]. exists None. cbn [GRelK gviewK].
      split; [|split; [apply keepK_refl|]; split; [rewrite app_nil_r; reflexivity | lia]].
      split; [repeat split; try assumption; apply Q|]. split; [exact Es|]. split; [exact D | lia].
Qed.

Lemma grun_k c crit e lo hi d0 : tscfg c crit -> tag_ok c -> years_ok e lo hi ->
  forall ops x a n, GRelK c e lo n x d0 a -> Forall basic_op ops -> Forall tick_ok ops ->
  (wnow (s_w x) + elapsed ops <= hi)%Z -> (N.of_nat (n + length ops) <= usize_max)%N ->
  Forall obs_ok (snd (run x ops))
  /\ exists a', GRelK c e lo (n + length ops) (fst (run x ops)) d0 a' /\ keepK (gviewK d0 a) (gviewK d0 a')
    /\ flatK (gviewK d0 a') = flatK (gviewK d0 a) ++ written ops
    /\ wnow (s_w (fst (run x ops))) = (wnow (s_w x) + elapsed ops)%Z.
Proof.
  intros Hcfg T Y. induction ops as [|o r IH]; intros x a n G Hb Htk Hhi Hmax.
  - cbn [run fst snd length elapsed written]. rewrite Nat.add_0_r, app_nil_r. split; [constructor|]. exists a.
    split; [exact G|]. split; [apply keepK_refl|]. split; [reflexivity | lia].
  - cbn [run]. inversion Hb as [|o' r' Ho Hr]; subst. inversion Htk as [|o' r' Hto Htr]; subst.
    cbn [elapsed length] in *. pose proof (elapsed_nonneg r Htr) as Er.
    assert (Hdt : (0 <= dt_of o)%Z) by (destruct o; cbn [dt_of tick_ok] in *; lia).
    destruct (gstep_k c crit e lo hi n x d0 a o Hcfg T Y G Ho Hto ltac:(lia) ltac:(lia)) as [K0 [a1 [G1 [X1 [F1 W1]]]]].
    destruct (step x o) as [x1 ob]. cbn [fst snd] in *.
    destruct (IH x1 a1 (S n) G1 Hr Htr ltac:(lia) ltac:(lia)) as [K1 [a2 [G2 [X2 [F2 W2]]]]].
    destruct (run x1 r) as [x2 obs]. cbn [fst snd] in *.
    split; [constructor; assumption|].
    exists a2. replace (n + S (length r)) with (S n + length r) by lia.
    split; [exact G2|]. split; [exact (keepK_trans _ _ _ X1 X2)|].
    split; [rewrite F2, F1, (written_cons o r), app_assoc; reflexivity | lia].
Qed.

(* ---- start and stop ---- *)
Lemma start_k c e lo n x d : IdleK c e lo n x d -> PreK c e lo (S n) (fst (step x (OStart c))) d /\ obs_ok (snd (step x (OStart c))).
Proof.
  intros [[Ht [Ha [Q Ho]]] [Es [D Hn]]]. rewrite (step_sync_none x _ Es). cbn [sync_step fst snd]. split; [|reflexivity].
  split; [repeat split; try assumption; apply Q|]. split; [reflexivity|]. split; [exact D | lia].
Qed.

Lemma stop_k c crit e lo n x d0 a : tscfg c crit -> GRelK c e lo n x d0 a ->
  IdleK c e lo n (fst (step x OStop)) (gviewK d0 a) /\ wnow (s_w (fst (step x OStop))) = wnow (s_w x) /\ obs_ok (snd (step x OStop)).
Proof.
  intros Hcfg G. destruct a as [D|]; cbn [GRelK gviewK] in *.
  - destruct (stop_ts c crit e lo n x None (Some D) Hcfg G) as [Id W]. cbn [gviewT] in Id.
    split; [apply idleK_of; exact Id|]. split; [exact W|].
    destruct D as [[[keys closed] cur] ts]. destruct G as [_ [wr [roll [Es _]]]].
    rewrite (TsRestart.step_sync_cfg c crit x _ OStop Hcfg Es eq_refl). cbn [sync_step]. rewrite Es. reflexivity.
  - destruct G as [[Ht [Ha [Q Ho]]] [Es [D Hn]]].
    rewrite (TsRestart.step_sync_cfg c crit x _ OStop Hcfg Es eq_refl). cbn [sync_step].
    rewrite Es. cbn [new_flw f_poisoned drop_state shutdown_state f_inner fst snd s_w]. split; [|split; reflexivity].
    split; [repeat split; try assumption; apply Q|]. split; [reflexivity|]. split; [exact D | lia].
Qed.

Lemma idle_tick_k c e lo n x d dt : (0 <= dt)%Z -> IdleK c e lo n x d ->
  IdleK c e lo n (fst (step x (OTick dt))) d /\ wnow (s_w (fst (step x (OTick dt)))) = (wnow (s_w x) + dt)%Z
  /\ obs_ok (snd (step x (OTick dt))).
Proof.
  intros Hdt [[Ht [Ha [Q Ho]]] [Es [D Hn]]]. rewrite (step_sync_none x _ Es). cbn [sync_step fst snd s_w set_now wnow].
  split; [|split; reflexivity].
  split; [repeat split; try assumption; apply Q|]. split; [exact Es|]. split; [|exact Hn].
  apply (dir_k_later c e lo (s_w x)); [exact D | reflexivity | apply quiet_set_now; exact Q | cbn [s_w set_now wnow]; lia | exact Ho].
Qed.

Lemma idleK_spec c c' e lo n x d : c_spec c = c_spec c' -> c_utc c = c_utc c' -> IdleK c e lo n x d -> IdleK c' e lo n x d.
Proof.
  intros E U Id. destruct d as [|keys closed cur ts|keys closed].
  - apply (idleK_of c' e lo n x None). apply (idleT_spec c c'); [exact E | exact U|]. apply (idleK_of c e lo n x None). exact Id.
  - apply (idleK_of c' e lo n x (Some (keys, closed, cur, ts))). apply (idleT_spec c c'); [exact E | exact U|].
    apply (idleK_of c e lo n x (Some (keys, closed, cur, ts))). exact Id.
  - destruct Id as [[Ht [Ha [Q Ho]]] [Es [D Hn]]]. cbn [dir_k] in D.
    assert (Ho' : eoff c' (s_w x) = e) by (rewrite <- (eoff_utc c c' _ U); exact Ho).
    split; [repeat split; try assumption; apply Q|]. split; [exact Es|]. split; [|exact Hn]. cbn [dir_k].
    destruct D as [Q' W Hnd Hoff Hnc Hlen Hcl Hon Hko Hrg Hlo]. pose proof (cname_spec_eq c c' E) as En.
    constructor; try assumption.
    + rewrite <- En. exact Hnc.
    + intros i Hi. rewrite <- (kname_spec_eq c c' e _ E). exact (Hcl i Hi).
    + intros m j L. destruct (Hon m j L) as [i [Hi ->]]. exists i. split; [exact Hi | apply kname_spec_eq; exact E].
Qed.

(* one whole run OStart c :: ops ++ [OStop] on a directory of the kind a kill leaves *)
Lemma start_run_k c crit e lo hi n x d ops :
  tscfg c crit -> tag_ok c -> years_ok e lo hi -> IdleK c e lo n x d ->
  Forall basic_op ops -> Forall tick_ok ops ->
  (wnow (s_w x) + elapsed ops <= hi)%Z -> (N.of_nat (S n + length ops) <= usize_max)%N ->
  Forall obs_ok (snd (run x (OStart c :: ops ++ [OStop])))
  /\ exists d', IdleK c e lo (S n + length ops) (fst (run x (OStart c :: ops ++ [OStop]))) d'
       /\ keepK d d' /\ flatK d' = flatK d ++ written ops
       /\ wnow (s_w (fst (run x (OStart c :: ops ++ [OStop])))) = (wnow (s_w x) + elapsed ops)%Z.
Proof.
  intros Hcfg T Y Id Hb Htk Hhi Hmax. pose proof (elapsed_nonneg ops Htk) as Eo.
  cbn [run].
  destruct (start_k c e lo n x d Id) as [P0 K0]. pose proof (start_now x c) as W1.
  destruct (step x (OStart c)) as [x0 ob0]. cbn [fst snd] in P0, W1, K0.
  assert (G0 : GRelK c e lo (S n) x0 d None) by exact P0.
  destruct (grun_k c crit e lo hi d Hcfg T Y ops x0 None (S n) G0 Hb Htk ltac:(lia) ltac:(lia)) as [K1 [a1 [G1 [X1 [F1 W2]]]]].
  rewrite run_app. destruct (run x0 ops) as [x1 obs1]. cbn [fst snd] in G1, K1, W2.
  destruct (stop_k c crit e lo (S n + length ops) x1 d a1 Hcfg G1) as [Id2 [W3 K2]].
  cbn [run]. destruct (step x1 OStop) as [x2 ob2]. cbn [fst snd] in *.
  split. { constructor; [exact K0|]. apply Forall_app. split; [exact K1 | constructor; [exact K2 | constructor]]. }
  exists (gviewK d a1). cbn [gviewK] in X1, F1.
  split; [exact Id2|]. split; [exact X1|]. split; [exact F1 | lia].
Qed.

(* ------------------------------------------------------------------ the killed run and the restart, put together *)
Lemma kill_restart_t c crit c' crit' t0 off ops1 k ops2 tick ops3 :
  tscfg c crit -> tag_ok c -> c_cap c = None ->
  tscfg c' crit' -> c_spec c' = c_spec c -> c_utc c' = c_utc c ->
  Forall basic_op ops1 -> Forall basic_op ops2 -> Forall basic_op ops3 ->
  Forall tick_ok ops1 -> Forall tick_ok ops2 -> Forall tick_ok ops3 -> (0 <= tick_dt tick)%Z ->
  let e := ts_e c off in
  let hi := (t0 + elapsed ops1 + elapsed ops2 + tick_dt tick + elapsed ops3)%Z in
  (0 <= t0 + e)%Z -> (hi + e < sec_max)%Z ->
  (N.of_nat (length ops1 + length ops2 + length ops3 + 2) <= usize_max)%N ->
  let x1 := fst (run (sys0 t0 off) (OStart c :: ops1 ++ [OSetKill k])) in
  let xk := fst (run (sys0 t0 off) (OStart c :: ops1 ++ [OSetKill k] ++ ops2 ++ [OCrash])) in
  let r2 := run xk (restart_ops tick c' ops3) in
  Forall obs_ok (snd r2)
  /\ exists n d d',
       IdleK c e t0 n xk d /\ flatK d = written ops1 ++ acked x1 ops2
       /\ IdleK c' e t0 (S n + length ops3) (fst r2) d' /\ flatK d' = written ops1 ++ acked x1 ops2 ++ written ops3
       /\ wnow (s_w (fst r2)) = hi
       /\ keepK d d'.
Proof.
  intros Hcfg T Hcap Hcfg' Hsp Hutc Hb1 Hb2 Hb3 Htk1 Htk2 Htk3 Hdt e hi Hlo Hhi Hmax x1 xk r2.
  pose proof (elapsed_nonneg ops1 Htk1) as E1. pose proof (elapsed_nonneg ops2 Htk2) as E2. pose proof (elapsed_nonneg ops3 Htk3) as E3.
  destruct (kill_history_t c crit t0 off ops1 k ops2 Hcfg Hcap T Hb1 Hb2 Htk1 Htk2 Hlo ltac:(fold e; unfold hi in Hhi; lia) ltac:(lia))
    as [[d [Id [F W]]] _].
  fold xk in Id, W. fold x1 in F. fold e in Id.
  assert (Y : years_ok e t0 hi) by (split; assumption).
  pose proof (tag_ok_spec c c' Hsp T) as T'.
  set (n := 1 + length ops1 + length ops2) in *.
  assert (Id' : IdleK c' e t0 n xk d) by (apply (idleK_spec c c'); [congruence | congruence | exact Id]).
  (* the clock tick between the crash and the restart *)
  destruct (tick_between (fun y => IdleK c' e t0 n y d) xk tick Hdt Id' (fun dt H => idle_tick_k c' e t0 n xk d dt H Id')) as [Ka [Ida Wa]].
  unfold r2, restart_ops. rewrite run_app.
  destruct (run xk (match tick with Some dt => [OTick dt] | None => [] end)) as [xa' obsa]. cbn [fst snd] in *.
  destruct (start_run_k c' crit' e t0 hi n xa' d ops3 Hcfg' T' Y Ida Hb3 Htk3 ltac:(rewrite Wa, W; unfold hi; lia) ltac:(unfold n; lia))
    as [K3 [d' [Id2 [X [F2 W2]]]]].
  destruct (run xa' (OStart c' :: ops3 ++ [OStop])) as [x3 obs3]. cbn [fst snd] in *.
  split; [apply Forall_app; split; assumption|].
  exists n, d, d'. split; [exact Id|]. split; [exact F|]. split; [exact Id2|].
  split; [rewrite F2, F, <- app_assoc; reflexivity|]. split; [rewrite W2, Wa, W; unfold hi; lia | exact X].
Qed.

(* The killed writer: Timestamps naming, direct mode (TsKill.v), any history, any kill point.  After the crash the clock
   advances by dt >= 0, then a new writer with the same file spec and the same choice of use_utc - its own criterion, buffer
   capacity and append flag - runs ops3 and is stopped.
   - Every operation of the new writer succeeds (Forall obs_ok: no error result, no panic) - also on the directory WITHOUT
     rCURRENT that a kill between the rename and the creation of a rotation leaves.
   - The final directory consists exactly of the closed files named by keys, in the order of their closing, and rCURRENT (if the
     new writer never writes and the kill left none, there is still none); read in this order they hold exactly acknowledged ++
     the new writer's records.
   - keys_ok keys: over BOTH runs the names are pairwise distinct and increasing in the order of closing - no name is used twice *)
Theorem timestamps_kill_restart c crit c' crit' t0 off ops1 k ops2 dt ops3 :
  tscfg c crit -> tag_ok c -> c_cap c = None ->
  tscfg c' crit' -> c_spec c' = c_spec c -> c_utc c' = c_utc c ->
  Forall basic_op ops1 -> Forall basic_op ops2 -> Forall basic_op ops3 ->
  Forall tick_ok ops1 -> Forall tick_ok ops2 -> Forall tick_ok ops3 -> (0 <= dt)%Z ->
  let e := ts_e c off in
  (0 <= t0 + e)%Z -> (t0 + elapsed ops1 + elapsed ops2 + dt + elapsed ops3 + e < sec_max)%Z ->
  (N.of_nat (length ops1 + length ops2 + length ops3 + 2) <= usize_max)%N ->
  let x1 := fst (run (sys0 t0 off) (OStart c :: ops1 ++ [OSetKill k])) in
  let xk := fst (run (sys0 t0 off) (OStart c :: ops1 ++ [OSetKill k] ++ ops2 ++ [OCrash])) in
  let r2 := run xk (OTick dt :: OStart c' :: ops3 ++ [OStop]) in
  Forall obs_ok (snd r2)
  /\ exists keys closed ocur,
       ts_view_opt c' e (wfs (s_w (fst r2))) keys closed ocur
       /\ keys_ok keys
       /\ (forall key, In key keys -> (t0 <= fst key <= t0 + elapsed ops1 + elapsed ops2 + dt + elapsed ops3)%Z)
       /\ concat closed ++ (match ocur with Some cu => cu | None => [] end) = written ops1 ++ acked x1 ops2 ++ written ops3.
Proof.
  intros Hcfg T Hcap Hcfg' Hsp Hutc Hb1 Hb2 Hb3 Htk1 Htk2 Htk3 Hdt e Hlo Hhi Hmax x1 xk r2.
  destruct (kill_restart_t c crit c' crit' t0 off ops1 k ops2 (Some dt) ops3 Hcfg T Hcap Hcfg' Hsp Hutc Hb1 Hb2 Hb3 Htk1 Htk2 Htk3
              Hdt Hlo Hhi Hmax) as [K [n [d [d' [_ [_ [Id2 [F2 [W2 _]]]]]]]]].
  split; [exact K|]. cbn [tick_dt] in W2.
  destruct (idleK_view c' (ts_e c off) t0 _ _ d' Id2) as [V [Ko Rg]].
  exists (keysK d'), (closedK d'), (ocurK d'). split; [exact (V c' eq_refl)|]. split; [exact Ko|].
  split; [|exact F2]. intros key Ik. specialize (Rg key Ik).
  change (restart_ops (Some dt) c' ops3) with (OTick dt :: OStart c' :: ops3 ++ [OStop]) in Rg, W2. rewrite W2 in Rg. exact Rg.
Qed.
Print Assumptions timestamps_kill_restart.

(* the same without an operation between the crash and the restart (the form of the theorems for Numbers / NumbersDirect naming) *)
Theorem timestamps_kill_restart_now c crit c' crit' t0 off ops1 k ops2 ops3 :
  tscfg c crit -> tag_ok c -> c_cap c = None ->
  tscfg c' crit' -> c_spec c' = c_spec c -> c_utc c' = c_utc c ->
  Forall basic_op ops1 -> Forall basic_op ops2 -> Forall basic_op ops3 ->
  Forall tick_ok ops1 -> Forall tick_ok ops2 -> Forall tick_ok ops3 ->
  let e := ts_e c off in
  (0 <= t0 + e)%Z -> (t0 + elapsed ops1 + elapsed ops2 + elapsed ops3 + e < sec_max)%Z ->
  (N.of_nat (length ops1 + length ops2 + length ops3 + 2) <= usize_max)%N ->
  let x1 := fst (run (sys0 t0 off) (OStart c :: ops1 ++ [OSetKill k])) in
  let xk := fst (run (sys0 t0 off) (OStart c :: ops1 ++ [OSetKill k] ++ ops2 ++ [OCrash])) in
  let r2 := run xk (OStart c' :: ops3 ++ [OStop]) in
  Forall obs_ok (snd r2)
  /\ exists keys closed ocur,
       ts_view_opt c' e (wfs (s_w (fst r2))) keys closed ocur
       /\ keys_ok keys
       /\ concat closed ++ (match ocur with Some cu => cu | None => [] end) = written ops1 ++ acked x1 ops2 ++ written ops3.
Proof.
  intros Hcfg T Hcap Hcfg' Hsp Hutc Hb1 Hb2 Hb3 Htk1 Htk2 Htk3 e Hlo Hhi Hmax x1 xk r2.
  destruct (kill_restart_t c crit c' crit' t0 off ops1 k ops2 None ops3 Hcfg T Hcap Hcfg' Hsp Hutc Hb1 Hb2 Hb3 Htk1 Htk2 Htk3
              ltac:(cbn [tick_dt]; lia) Hlo ltac:(cbn [tick_dt]; fold e; lia) Hmax) as [K [n [d [d' [_ [_ [Id2 [F2 _]]]]]]]].
  split; [exact K|].
  destruct (idleK_view c' (ts_e c off) t0 _ _ d' Id2) as [V [Ko _]].
  exists (keysK d'), (closedK d'), (ocurK d'). split; [exact (V c' eq_refl)|]. split; [exact Ko | exact F2].
Qed.
Print Assumptions timestamps_kill_restart_now.

(* the closed files that the killed writer left are closed files of the final directory, under their names and with their contents
   (rCURRENT, if the kill left one, is continued - with append - or closed under the key of its birth second) *)
Theorem timestamps_kill_restart_keep c crit c' crit' t0 off ops1 k ops2 dt ops3 :
  tscfg c crit -> tag_ok c -> c_cap c = None ->
  tscfg c' crit' -> c_spec c' = c_spec c -> c_utc c' = c_utc c ->
  Forall basic_op ops1 -> Forall basic_op ops2 -> Forall basic_op ops3 ->
  Forall tick_ok ops1 -> Forall tick_ok ops2 -> Forall tick_ok ops3 -> (0 <= dt)%Z ->
  let e := ts_e c off in
  (0 <= t0 + e)%Z -> (t0 + elapsed ops1 + elapsed ops2 + dt + elapsed ops3 + e < sec_max)%Z ->
  (N.of_nat (length ops1 + length ops2 + length ops3 + 2) <= usize_max)%N ->
  let xk := fst (run (sys0 t0 off) (OStart c :: ops1 ++ [OSetKill k] ++ ops2 ++ [OCrash])) in
  let x2 := fst (run xk (OTick dt :: OStart c' :: ops3 ++ [OStop])) in
  exists keys1 closed1 ocur1 keys2 closed2 ocur2 mk mc,
    ts_view_opt c e (wfs (s_w xk)) keys1 closed1 ocur1
    /\ ts_view_opt c' e (wfs (s_w x2)) keys2 closed2 ocur2 /\ keys_ok keys2
    /\ keys2 = keys1 ++ mk /\ closed2 = closed1 ++ mc.
Proof.
  intros Hcfg T Hcap Hcfg' Hsp Hutc Hb1 Hb2 Hb3 Htk1 Htk2 Htk3 Hdt e Hlo Hhi Hmax xk x2.
  destruct (kill_restart_t c crit c' crit' t0 off ops1 k ops2 (Some dt) ops3 Hcfg T Hcap Hcfg' Hsp Hutc Hb1 Hb2 Hb3 Htk1 Htk2 Htk3
              Hdt Hlo Hhi Hmax) as [_ [n [d1 [d2 [Id1 [_ [Id2 [_ [_ [mk [mc [Ek Ec]]]]]]]]]]]].
  destruct (idleK_view c (ts_e c off) t0 _ _ d1 Id1) as [V1 _].
  destruct (idleK_view c' (ts_e c off) t0 _ _ d2 Id2) as [V2 [Ko2 _]].
  exists (keysK d1), (closedK d1), (ocurK d1), (keysK d2), (closedK d2), (ocurK d2), mk, mc.
  split; [exact (V1 c eq_refl)|]. split; [exact (V2 c' eq_refl)|]. split; [exact Ko2|]. split; [exact Ek | exact Ec].
Qed.
Print Assumptions timestamps_kill_restart_keep.

(* ------------------------------------------------------------------ examples (non-vacuity) *)
Open Scope string_scope.
(* the new writer: buffered, size criterion 100 *)
Definition tskr_cfg2 (app : bool) : config := ext_cfg (ex_sp "log") app (CSize 100) (Some 8%nat) false.
Definition tskr_ops3 : list op := [OWrite (bs "xy"); OFlush; OTick 5; OTrigger; OWrite (bs "z")].

(* the killed writer of TsKill.v (tsk_hist; the clock shows 1 at the crash).
   Kill point 1: NO rCURRENT ("ef" was renamed, the creation was killed).  The new writer - with or without append - creates
   rCURRENT (born in second 1) and writes "xy"; its trigger (clock 6) closes it as <01>.
   Kill point 2: an empty rCURRENT, born in second 0.  With append it is continued ("xy", closed as <00>.restart-0001, the next
   free name of its birth second); without append the empty file is closed under that name and a new rCURRENT, born in second 1,
   takes "xy" (closed as <01>).
   Kill point 0 (nothing happened): rCURRENT = "ef" *)
Example tskr_dirs :
  List.map (fun ka : nat * bool => snap_of (fst (run (fst (run (sys0 0 0) (tsk_hist false (fst ka)))) (OStart (tskr_cfg2 (snd ka)) :: tskr_ops3 ++ [OStop]))))
           [(1, true); (1, false); (2, true); (2, false); (0, true); (0, false)]
  = [ [ (bs "app_r1970-01-01_00-00-00.log", 0%N, bs "abcd"); (bs "app_r1970-01-01_00-00-00.restart-0000.log", 0%N, bs "ef");
        (bs "app_r1970-01-01_00-00-01.log", 0%N, bs "xy"); (bs "app_rCURRENT.log", 0%N, bs "z") ];
      [ (bs "app_r1970-01-01_00-00-00.log", 0%N, bs "abcd"); (bs "app_r1970-01-01_00-00-00.restart-0000.log", 0%N, bs "ef");
        (bs "app_r1970-01-01_00-00-01.log", 0%N, bs "xy"); (bs "app_rCURRENT.log", 0%N, bs "z") ];
      [ (bs "app_r1970-01-01_00-00-00.log", 0%N, bs "abcd"); (bs "app_r1970-01-01_00-00-00.restart-0000.log", 0%N, bs "ef");
        (bs "app_r1970-01-01_00-00-00.restart-0001.log", 0%N, bs "xy"); (bs "app_rCURRENT.log", 0%N, bs "z") ];
      [ (bs "app_r1970-01-01_00-00-00.log", 0%N, bs "abcd"); (bs "app_r1970-01-01_00-00-00.restart-0000.log", 0%N, bs "ef");
        (bs "app_r1970-01-01_00-00-00.restart-0001.log", 0%N, []); (bs "app_r1970-01-01_00-00-01.log", 0%N, bs "xy");
        (bs "app_rCURRENT.log", 0%N, bs "z") ];
      [ (bs "app_r1970-01-01_00-00-00.log", 0%N, bs "abcd"); (bs "app_r1970-01-01_00-00-00.restart-0000.log", 0%N, bs "efxy");
        (bs "app_rCURRENT.log", 0%N, bs "z") ];
      [ (bs "app_r1970-01-01_00-00-00.log", 0%N, bs "abcd"); (bs "app_r1970-01-01_00-00-00.restart-0000.log", 0%N, bs "ef");
        (bs "app_r1970-01-01_00-00-01.log", 0%N, bs "xy"); (bs "app_rCURRENT.log", 0%N, bs "z") ] ].
Proof. vm_compute. reflexivity. Qed.

(* a new writer that does not write leaves the directory without rCURRENT as it is *)
Example tskr_no_write :
  snap_of (fst (run (fst (run (sys0 0 0) (tsk_hist false 1))) (OStart (tskr_cfg2 true) :: [OFlush; OTrigger] ++ [OStop])))
  = [ (bs "app_r1970-01-01_00-00-00.log", 0%N, bs "abcd"); (bs "app_r1970-01-01_00-00-00.restart-0000.log", 0%N, bs "ef") ].
Proof. vm_compute. reflexivity. Qed.

Lemma tskr_basic3 : Forall basic_op tskr_ops3.
Proof. repeat constructor. Qed.
Lemma tskr_ticks3 : Forall tick_ok tskr_ops3.
Proof. repeat (apply Forall_cons; [cbn [tick_ok]; first [exact Logic.I | lia]|]); apply Forall_nil. Qed.
Lemma tskr_cfg2_ok app : tscfg (tskr_cfg2 app) (CSize 100).
Proof. apply ext_cfg_ok. reflexivity. Qed.

(* the theorems applied: the restart on the directory without rCURRENT *)
Example tskr_restart_now_instance :
  let r2 := run (fst (run (sys0 0 0) (tsk_hist false 1))) (OStart (tskr_cfg2 true) :: tskr_ops3 ++ [OStop]) in
  Forall obs_ok (snd r2)
  /\ exists keys closed ocur, ts_view_opt (tskr_cfg2 true) 0 (wfs (s_w (fst r2))) keys closed ocur /\ keys_ok keys
       /\ concat closed ++ (match ocur with Some cu => cu | None => [] end) = bs "abcdefxyz".
Proof.
  destruct (timestamps_kill_restart_now (tsk_cfg false) (CSize 3) (tskr_cfg2 true) (CSize 100) 0 0 tsk_ops1 1 tsk_ops2 tskr_ops3
              (tsk_cfg_ok false) (tsk_tag_ok false) eq_refl (tskr_cfg2_ok true) eq_refl eq_refl
              tsk_basic1 tsk_basic2 tskr_basic3 tsk_ticks1 tsk_ticks2 tskr_ticks3) as [K [keys [closed [ocur [V [Ko E]]]]]];
    [change (0 <= 0)%Z; lia | change (6 + 0 < sec_max)%Z; unfold sec_max; lia | vm_compute; discriminate |].
  split; [exact K|]. exists keys, closed, ocur. split; [exact V|]. split; [exact Ko|]. rewrite E. vm_compute. reflexivity.
Qed.

(* ... and two seconds after the crash, without append, after the kill in the rotating write (kill point 6: rCURRENT empty) *)
Example tskr_restart_instance :
  let r2 := run (fst (run (sys0 0 0) (tsk_hist false 6))) (OTick 2 :: OStart (tskr_cfg2 false) :: tskr_ops3 ++ [OStop]) in
  Forall obs_ok (snd r2)
  /\ exists keys closed ocur, ts_view_opt (tskr_cfg2 false) 0 (wfs (s_w (fst r2))) keys closed ocur /\ keys_ok keys
       /\ concat closed ++ (match ocur with Some cu => cu | None => [] end) = bs "abcdefghijklxyz".
Proof.
  destruct (timestamps_kill_restart (tsk_cfg false) (CSize 3) (tskr_cfg2 false) (CSize 100) 0 0 tsk_ops1 6 tsk_ops2 2 tskr_ops3
              (tsk_cfg_ok false) (tsk_tag_ok false) eq_refl (tskr_cfg2_ok false) eq_refl eq_refl
              tsk_basic1 tsk_basic2 tskr_basic3 tsk_ticks1 tsk_ticks2 tskr_ticks3 ltac:(lia))
    as [K [keys [closed [ocur [V [Ko [_ E]]]]]]];
    [change (0 <= 0)%Z; lia | change (8 + 0 < sec_max)%Z; unfold sec_max; lia | vm_compute; discriminate |].
  split; [exact K|]. exists keys, closed, ocur. split; [exact V|]. split; [exact Ko|]. rewrite E. vm_compute. reflexivity.
Qed.

Print Assumptions timestamps_kill_restart.
Print Assumptions timestamps_kill_restart_now.
Print Assumptions timestamps_kill_restart_keep.
