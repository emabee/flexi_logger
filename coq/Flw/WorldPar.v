(* The model never inspects the symlink target, the error channel or (below cleanup_or_queue) the counter of queued
   cleanup requests; and a process that is not being killed stays so.

   X l es n w  is the world w with the link replaced by l, the errors es put in front of the error channel, the
   request counter replaced by n, and no kill pending.  Every world without a pending kill has this form (alive_X).
   For every function f of the model that works on the world:
       exists result and world w', forall l es n,  f (X l es n w) = (result, X l es n w')            (U1, U2, U3)
   that is: the result and what happens to the file system, the clock and the fault oracle do not depend on l, es, n;
   the link and the counter are handed on unchanged; errors are only appended; no kill appears.
   Above cleanup_or_queue the counter is tracked (V2).  open_log_file sets the link to the path it opens when a symlink is
   configured.  initialize, mount_next and write_buffer are restated with the opening function as a parameter; for two
   opening functions that differ in the link only they give the same result, state and - up to the link - world, and the
   error channel only grows.  No statement here is specific to a naming scheme. *)
Require Import FL.Base.Bytes FL.Base.BytesFacts FL.Base.PathName FL.Fs.Fs FL.Fs.FsFacts FL.Time.Civil FL.Time.TsFormat
  FL.Names.FileSpec FL.Flw.Model FL.Flw.ModelFacts.
Open Scope nat_scope.

Definition X (l : option bytes) (es : list ecode) (n : nat) (w : world) : world :=
  {| wfs := wfs w; wnow := wnow w; woff := woff w; wfaults := wfaults w; wkill := None; werrs := es ++ werrs w;
     wlink := l; wacts := n |}.

Ltac xs := cbn [X wfs wnow woff wfaults wkill werrs wlink wacts].
Ltac red_let := cbv beta iota zeta.

Lemma alive_X w : wkill w = None -> w = X (wlink w) [] (wacts w) w.
Proof. destruct w; cbn. intros ->. reflexivity. Qed.

Lemma X_X l es n l' es' n' w : X l es n (X l' es' n' w) = X l (es ++ es') n w.
Proof. unfold X. cbn. rewrite app_assoc. reflexivity. Qed.

Definition U1 (f : world -> world) (w : world) : Prop :=
  exists w', forall l es n, f (X l es n w) = X l es n w'.
Definition U2 {A} (f : world -> A * world) (w : world) : Prop :=
  exists a w', forall l es n, f (X l es n w) = (a, X l es n w').
Definition U3 {A B} (f : world -> A * world * B) (w : world) : Prop :=
  exists a w' b, forall l es n, f (X l es n w) = (a, X l es n w', b).

(* ------------------------------------------------------------------ primitives *)
Lemma tick_X l es n w : tick (X l es n w) = (fst (tick w), X l es n (snd (tick w))).
Proof. unfold tick. xs. destruct (wfaults w); reflexivity. Qed.
Lemma tick_U w : U2 tick w.
Proof. exists (fst (tick w)), (snd (tick w)). intros. apply tick_X. Qed.

Lemma effect_X l es n w g : effect (X l es n w) g = X l es n (set_fs w (g (wfs w))).
Proof. reflexivity. Qed.

Definition rep (e : ecode) (w : world) : world :=
  {| wfs := wfs w; wnow := wnow w; woff := woff w; wfaults := wfaults w; wkill := wkill w; werrs := werrs w ++ [e];
     wlink := wlink w; wacts := wacts w |}.
Lemma report_X e l es n w : report e (X l es n w) = X l es n (rep e w).
Proof. unfold report, X, rep. cbn. rewrite app_assoc. reflexivity. Qed.
Lemma set_acts_X l es n w m : set_acts (X l es n w) m = X l es m w.
Proof. reflexivity. Qed.

Lemma p_rename_U a b w : U2 (fun W => p_rename W a b) w.
Proof.
  unfold U2, p_rename. destruct (tick_U w) as [flt [w1 T]].
  destruct flt; [exists RErr, w1; intros; rewrite T; reflexivity|].
  destruct (rename (wfs w1) a b) as [f'|] eqn:Er.
  - eexists _, _. intros. rewrite T. red_let. xs. rewrite Er, effect_X. reflexivity.
  - exists RNotFound, w1. intros. rewrite T. red_let. xs. rewrite Er. reflexivity.
Qed.

Lemma p_remove_U a w : U2 (fun W => p_remove W a) w.
Proof.
  unfold U2, p_remove. destruct (tick_U w) as [flt [w1 T]].
  destruct flt; [exists false, w1; intros; rewrite T; reflexivity|].
  destruct (lookup (wfs w1) a) as [j|] eqn:El.
  - eexists _, _. intros. rewrite T. red_let. xs. rewrite El, effect_X. reflexivity.
  - exists false, w1. intros. rewrite T. red_let. xs. rewrite El. reflexivity.
Qed.

Lemma p_open_U name app w : U2 (fun W => p_open W name app) w.
Proof.
  unfold U2, p_open. destruct (tick_U w) as [flt [w1 T]].
  destruct flt; [exists None, w1; intros; rewrite T; reflexivity|].
  destruct (match file_of (wfs w1) name with Some fl => fdir fl | None => false end) eqn:Ed.
  - exists None, w1. intros. rewrite T. red_let. xs. rewrite Ed. reflexivity.
  - eexists _, _. intros. rewrite T. red_let. xs. rewrite Ed, effect_X. reflexivity.
Qed.

Lemma p_write_U i b w : U2 (fun W => p_write W i b) w.
Proof.
  unfold U2, p_write. destruct b as [|x b]; [exists true, w; reflexivity|].
  destruct (tick_U w) as [flt [w1 T]].
  destruct flt; [exists false, w1; intros; rewrite T; reflexivity|].
  eexists _, _. intros. rewrite T. red_let. rewrite effect_X. reflexivity.
Qed.

(* ------------------------------------------------------------------ the buffered writer *)
Lemma w_flush_U wr w : U3 (fun W => w_flush W wr) w.
Proof.
  unfold U3, w_flush. destruct (p_write_U (wino wr) (wpend wr) w) as [ok [w1 E]].
  destruct ok; eexists _, _, _; intros; rewrite E; reflexivity.
Qed.

Lemma w_write_U wr b w : U3 (fun W => w_write W wr b) w.
Proof.
  unfold U3, w_write. destruct (wcap wr) as [c|].
  - destruct (Nat.ltb (length b) (c - length (wpend wr))); [eexists _, _, _; intros; reflexivity|].
    destruct (Nat.ltb (c - length (wpend wr)) (length b)).
    + destruct (w_flush_U wr w) as [ok1 [w1 [wr1 EF]]]. destruct ok1.
      * destruct (Nat.leb c (length b)).
        -- destruct (p_write_U (wino wr1) b w1) as [ok [w2 EP]].
           eexists _, _, _. intros. rewrite EF. red_let. rewrite EP. reflexivity.
        -- eexists _, _, _. intros. rewrite EF. reflexivity.
      * eexists _, _, _. intros. rewrite EF. reflexivity.
    + destruct (Nat.leb c (length b)).
      * destruct (p_write_U (wino wr) b w) as [ok [w2 EP]].
        eexists _, _, _. intros. red_let. rewrite EP. reflexivity.
      * eexists _, _, _. intros. reflexivity.
  - destruct (p_write_U (wino wr) b w) as [ok [w2 EP]].
    eexists _, _, _. intros. rewrite EP. reflexivity.
Qed.

Lemma w_drop_U wr w : U1 (fun W => w_drop W wr) w.
Proof.
  unfold U1, w_drop. destruct (w_flush_U wr w) as [ok [w1 [wr1 E]]]. exists w1. intros. rewrite E. reflexivity.
Qed.

(* ------------------------------------------------------------------ names and time: read-only *)
(* Stated through the unfolded definitions with the projections of X reduced, so that the two sides are the same
   text: left to the conversion test, each of these unfolds the formatting of the start time on both sides. *)
Lemma fixed_of_X c l es n w : fixed_of c (X l es n w) = fixed_of c w.
Proof. unfold fixed_of, starttxt, local_civil. xs. reflexivity. Qed.
Lemma name_of_X c l es n w o : name_of c (X l es n w) o = name_of c w o.
Proof. unfold name_of. rewrite fixed_of_X. reflexivity. Qed.
Lemma infix_from_ts_X c l es n w fmt t : infix_from_ts c (X l es n w) fmt t = infix_from_ts c w fmt t.
Proof. unfold infix_from_ts, local_civil. xs. reflexivity. Qed.
Lemma birth_or_now_X l es n w p : birth_or_now (X l es n w) p = birth_or_now w p.
Proof. reflexivity. Qed.
Lemma rotation_necessary_X l es n w r : rotation_necessary (X l es n w) r = rotation_necessary w r.
Proof. unfold rotation_necessary, age_rotation_necessary, local_civil. xs. reflexivity. Qed.
Lemma reset_size_and_date_X l es n w r p : reset_size_and_date (X l es n w) r p = reset_size_and_date w r p.
Proof. reflexivity. Qed.

Ltac lf :=
  intros;
  repeat first
    [ rewrite effect_X | rewrite fixed_of_X | rewrite name_of_X | rewrite infix_from_ts_X | rewrite birth_or_now_X
    | progress red_let | progress xs | progress cbn [bind]
    | match goal with H : forall (l : option bytes) (es : list ecode) (n : nat), _ = _ |- _ => rewrite H end
    | match goal with H : _ = _ |- _ => rewrite H end ];
  reflexivity.

(* ------------------------------------------------------------------ cleanup *)
Lemma compress_file_U nm w : U2 (fun W => compress_file W nm) w.
Proof.
  unfold U2, compress_file. destruct (tick_U w) as [f1 [w1 T1]].
  destruct f1; [exists false, w1; lf|].
  destruct (match file_of (wfs w1) (gz_name nm) with Some fl => fdir fl | None => false end) eqn:Ed.
  { exists false, w1. lf. }
  destruct (tick_U (set_fs w1 (fst (open_trunc (wfs w1) (gz_name nm) 2%N (wnow w1))))) as [f2 [w3 T2]].
  destruct f2; [eexists _, _; lf|].
  destruct (lookup (wfs w3) nm) as [src|] eqn:El; [|eexists _, _; lf].
  destruct (tick_U w3) as [f3 [w4 T3]].
  destruct f3; [eexists _, _; lf|].
  destruct (tick_U (set_fs w4 (wfs w4))) as [f4 [w6 T4]].
  destruct f4; [eexists _, _; lf|].
  destruct (p_remove_U nm (set_fs w6 (set_gz (wfs w6) (snd (open_trunc (wfs w1) (gz_name nm) 2%N (wnow w1))) 1%N (content (wfs w3) src))))
    as [ok [w8 ER]].
  eexists _, _. lf.
Qed.

Lemma cleanup_loop_U ll total cur : forall files w idx, U2 (fun W => cleanup_loop W files idx ll total cur) w.
Proof.
  induction files as [|nm r IH]; intros w idx; unfold U2; cbn [cleanup_loop].
  - exists true, w. reflexivity.
  - destruct (match cur with Some p => beq p nm | None => false end); [apply IH|].
    assert (C : exists a w', forall l es n,
               (let '(ok, w1) := compress_file (X l es n w) nm in
                if ok then cleanup_loop w1 r (S idx) ll total cur else (false, w1)) = (a, X l es n w')).
    { destruct (compress_file_U nm w) as [ok [w1 E]]. destruct ok.
      - destruct (IH w1 (S idx)) as [a [w2 E2]]. exists a, w2. intros. rewrite E. apply E2.
      - exists false, w1. intros. rewrite E. reflexivity. }
    destruct (Nat.leb total idx).
    + destruct (p_remove_U nm w) as [ok [w1 E]]. destruct ok.
      * destruct (IH w1 (S idx)) as [a [w2 E2]]. exists a, w2. intros. rewrite E. apply E2.
      * exists false, w1. intros. rewrite E. reflexivity.
    + destruct (Nat.leb ll idx); [|apply IH].
      destruct (extension nm) as [e|]; [|exact C]. destruct (beq e gz_sfx); [apply IH | exact C].
Qed.

Lemma remove_redundant_U : forall red files w, U3 (fun W => remove_redundant W red files) w.
Proof.
  induction red as [|nm r IH]; intros files w; unfold U3; cbn [remove_redundant].
  - exists true, w, files. reflexivity.
  - destruct (p_remove_U nm w) as [ok [w1 E]]. destruct ok.
    + destruct (IH (filter (fun m => negb (beq m nm)) files) w1) as [a [w2 [b E2]]]. exists a, w2, b. intros. rewrite E. apply E2.
    + exists false, w1, files. intros. rewrite E. reflexivity.
Qed.

(* the cleanup proper: cleanup_impl computes the two limits from the strategy and runs this *)
Definition cleanup_body (c : config) (w : world) (flt : infix_filter) (cur : option bytes) (ll tot : nat) : res unit * world :=
  let '(fl, w1) := tick w in
  if fl then (Err, w1) else
  match list_log_gz (woff w1) (c_spec c) (fixed_of c w1) (wfs w1) flt with
  | None => (Panic, w1)
  | Some files =>
    let '(ok0, w1', files') := remove_redundant w1 (redundant_gz files) files in
    if negb ok0 then (Err, w1') else
    let '(ok, w2) := cleanup_loop w1' files' 0 ll tot cur in
    ((if ok then Ok tt else Err), w2)
  end.

Definition keep_of (k : cleanup) (cur : option bytes) : nat * nat :=
  let '(ll, cl) := match k with KLog a => (a, O) | KGz b => (O, b) | KLogGz a b => (a, b) | KNever => (O, O) end in
  let ll := if match cur with Some _ => true | None => false end && Nat.eqb ll 0 then 1 else ll in
  (ll, ll + cl).

Lemma cleanup_impl_body c w k flt cur :
  cleanup_impl c w k flt cur
  = match k with KNever => (Ok tt, w) | _ => cleanup_body c w flt cur (fst (keep_of k cur)) (snd (keep_of k cur)) end.
Proof. destruct k; reflexivity. Qed.

Lemma cleanup_body_U c flt cur ll tot w : U2 (fun W => cleanup_body c W flt cur ll tot) w.
Proof.
  unfold U2, cleanup_body. destruct (tick_U w) as [fl [w1 T]]. destruct fl; [exists Err, w1; lf|].
  destruct (list_log_gz (woff w1) (c_spec c) (fixed_of c w1) (wfs w1) flt) as [files|] eqn:El; [|exists Panic, w1; lf].
  destruct (remove_redundant_U (redundant_gz files) files w1) as [ok0 [w1' [files' ER]]].
  destruct ok0; [|exists Err, w1'; lf].
  destruct (cleanup_loop_U ll tot cur files' w1' 0) as [ok [w2 EC]].
  eexists _, _. lf.
Qed.

Lemma cleanup_impl_U c k flt cur w : U2 (fun W => cleanup_impl c W k flt cur) w.
Proof.
  destruct (cleanup_body_U c flt cur (fst (keep_of k cur)) (snd (keep_of k cur)) w) as [a [w' E]].
  destruct k; [exists (Ok tt), w; reflexivity | | |]; exists a, w'; intros; rewrite cleanup_impl_body; apply E.
Qed.

(* ------------------------------------------------------------------ naming *)
Lemma bind_U {A B} (f : world -> res A * world) (g : A -> world -> res B * world) w :
  U2 f w -> (forall a w1, U2 (g a) w1) -> U2 (fun W => bind (f W) g) w.
Proof.
  intros [r [w1 E]] H. destruct r as [a| |].
  - destruct (H a w1) as [b [w2 E2]]. exists b, w2. intros. rewrite E. apply E2.
  - exists Err, w1. intros. rewrite E. reflexivity.
  - exists Panic, w1. intros. rewrite E. reflexivity.
Qed.

Lemma with_listing_U {A} (g : world -> option A) w :
  (forall l es n w, g (X l es n w) = g w) -> U2 (fun W => with_listing W g) w.
Proof.
  intros Hg. unfold U2, with_listing. destruct (tick_U w) as [fl [w1 T]]. destruct fl; [exists Err, w1; lf|].
  destruct (g w1) as [a|] eqn:Eg; [exists (Ok a), w1 | exists Panic, w1]; intros; rewrite T; red_let; rewrite Hg, Eg; reflexivity.
Qed.

Lemma index_for_rcurrent_U c o_idx rotate w : U2 (fun W => index_for_rcurrent c W o_idx rotate) w.
Proof.
  assert (A : U2 (fun W => match o_idx with
                           | Some i => (Ok i, W)
                           | None => with_listing W (fun w' =>
                               match get_highest_index (woff w') (c_spec c) (fixed_of c w') (wfs w') with
                               | None => None | Some (Some i) => Some (i + 1)%N | Some None => Some 0%N end)
                           end) w).
  { destruct o_idx as [i|]; [exists (Ok i), w; reflexivity|]. apply with_listing_U. intros. rewrite fixed_of_X. reflexivity. }
  destruct A as [r0 [w0 E0]]. unfold U2, index_for_rcurrent.
  destruct r0 as [idx| |]; [|exists Err, w0; intros; rewrite E0; reflexivity | exists Panic, w0; intros; rewrite E0; reflexivity].
  destruct rotate; [|exists (Ok idx), w0; intros; rewrite E0; reflexivity].
  destruct (p_rename_U (name_of c w0 (Some cur_infix)) (name_of c w0 (Some (number_infix idx))) w0) as [r [w1 E1]].
  destruct r; eexists _, _; intros; rewrite E0; red_let; rewrite !name_of_X, E1; reflexivity.
Qed.

Lemma collision_free_U c infix w : U2 (fun W => collision_free c W infix) w.
Proof.
  unfold U2, collision_free. destruct (tick_U w) as [f1 [w1 T1]]. destruct f1; [exists Err, w1; lf|].
  destruct (tick_U w1) as [f2 [w2 T2]]. destruct f2; [exists Err, w2; lf|].
  destruct (collision_free_infix (woff w2) (c_spec c) (fixed_of c w2) (wfs w2) infix) as [[i|]|] eqn:Ec; eexists _, _; lf.
Qed.

Lemma creation_ts_of_current_U c cur rotate o_date fmt w : U2 (fun W => creation_ts_of_current c W cur rotate o_date fmt) w.
Proof.
  unfold U2, creation_ts_of_current. destruct rotate; [|eexists _, _; lf].
  destruct (collision_free_U c (infix_from_ts c w fmt (match o_date with Some d => d | None => birth_or_now w (name_of c w (Some cur)) end)) w)
    as [r [w1 E1]].
  destruct r as [infix| |]; [|exists Err, w1; lf | exists Panic, w1; lf].
  destruct (p_rename_U (name_of c w (Some cur)) (name_of c w1 (Some infix)) w1) as [rr [w2 E2]].
  destruct rr; eexists _, _; lf.
Qed.

Lemma latest_timestamp_file_U c rotate fmt w : U2 (fun W => latest_timestamp_file c W rotate fmt) w.
Proof.
  unfold latest_timestamp_file. destruct rotate; [exists (Ok (wnow w)), w; reflexivity|].
  apply with_listing_U. intros. rewrite fixed_of_X. reflexivity.
Qed.

Lemma roll_new_U crit app path w : U2 (fun W => roll_new W crit app path) w.
Proof.
  unfold U2, roll_new. destruct app; [|eexists _, _; lf].
  destruct (tick_U w) as [fl [w1 T]]. destruct fl; [exists Err, w1; lf|].
  destruct (file_of (wfs w1) path) as [f|] eqn:Ef; eexists _, _; lf.
Qed.

Lemma init_naming_U c nam w : U2 (fun W => init_naming c W nam) w.
Proof.
  assert (D : forall fmt, U2 (fun W =>
            bind (latest_timestamp_file c W (negb (c_append c)) fmt)
              (fun ts w1 =>
                 let infix := infix_from_ts c w1 fmt ts in
                 bind (collision_free c w1 infix)
                   (fun next w2 =>
                      if c_append c then
                        match newest_of_next infix next with
                        | None => (Ok (NSTs ts None fmt, next), w2)
                        | Some newest =>
                          match lookup (wfs w2) (name_of c w2 (Some newest)) with
                          | Some _ => (Ok (NSTs ts None fmt, newest), w2)
                          | None => (Ok (NSTs ts None fmt, next), w2)
                          end
                        end
                      else (Ok (NSTs ts None fmt, next), w2)))) w).
  { intros fmt. apply bind_U; [apply latest_timestamp_file_U|]. intros ts w1. unfold U2.
    destruct (collision_free_U c (infix_from_ts c w1 fmt ts) w1) as [r [w2 E]].
    destruct r as [next| |]; [|exists Err, w2; lf | exists Panic, w2; lf].
    destruct (c_append c); [|eexists _, _; lf].
    destruct (newest_of_next (infix_from_ts c w1 fmt ts) next) as [newest|] eqn:En; [|eexists _, _; lf].
    destruct (lookup (wfs w2) (name_of c w2 (Some newest))) eqn:El; eexists _, _; lf. }
  assert (C : forall cur fmt, U2 (fun W =>
            bind (creation_ts_of_current c W cur (negb (c_append c)) None fmt)
              (fun ts w1 => (Ok (NSTs ts (Some cur) fmt, cur), w1))) w).
  { intros cur fmt. apply bind_U; [apply creation_ts_of_current_U|]. intros ts w1. eexists _, _. reflexivity. }
  unfold init_naming. destruct nam as [| |[cur|] fmt| |].
  - apply C.
  - apply D.
  - apply C.
  - apply D.
  - apply bind_U; [apply index_for_rcurrent_U|]. intros idx w1. eexists _, _. reflexivity.
  - apply bind_U; [apply with_listing_U; intros; rewrite fixed_of_X; reflexivity|]. intros o w1. destruct o as [i|]; eexists _, _; lf.
Qed.

(* ------------------------------------------------------------------ corollaries for a single world *)
Definition noerr (w : world) : world :=
  {| wfs := wfs w; wnow := wnow w; woff := woff w; wfaults := wfaults w; wkill := wkill w; werrs := [];
     wlink := wlink w; wacts := wacts w |}.
Lemma X_noerr l n w : X l (werrs w) n (noerr w) = X l [] n w.
Proof. unfold X, noerr. cbn. rewrite app_nil_r. reflexivity. Qed.
Lemma grow_help l n' n2 w w' w2 : X l [] n' w' = X l (werrs w) n2 w2 -> exists e, werrs w' = werrs w ++ e.
Proof. intros H. apply (f_equal werrs) in H. cbn in H. eauto. Qed.

(* what a function with the uniformity property does to a world without a pending kill *)
Lemma U2_env {A} (f : world -> A * world) w a w1 : U2 f w -> wkill w = None -> f w = (a, w1) ->
  wkill w1 = None /\ wacts w1 = wacts w /\ wlink w1 = wlink w.
Proof.
  intros [a' [w' E]] K H. rewrite (alive_X w K), E in H. injection H as _ <-. repeat split.
Qed.
Lemma U3_env {A B} (f : world -> A * world * B) w a w1 b : U3 f w -> wkill w = None -> f w = (a, w1, b) ->
  wkill w1 = None /\ wacts w1 = wacts w /\ wlink w1 = wlink w.
Proof.
  intros [a' [w' [b' E]]] K H. rewrite (alive_X w K), E in H. injection H as _ <- _. repeat split.
Qed.
Lemma U1_env (f : world -> world) w : U1 f w -> wkill w = None ->
  wkill (f w) = None /\ wacts (f w) = wacts w /\ wlink (f w) = wlink w.
Proof. intros [w' E] K. rewrite (alive_X w K), E. repeat split. Qed.

(* ------------------------------------------------------------------ the symlink; open_log_file *)
Lemma do_symlink_X c l es n w p : do_symlink c (X l es n w) p = X (if c_symlink c then Some p else l) es n w.
Proof. unfold do_symlink. destruct (c_symlink c); [|reflexivity]. destruct l; reflexivity. Qed.

Definition upd (ol l : option bytes) : option bytes := match ol with Some p => Some p | None => l end.

(* the link that open_log_file leaves: with a configured symlink the path that is (about to be) opened *)
Definition link_of (c : config) (w : world) (i : option bytes) : option bytes :=
  if c_symlink c then Some (name_of c w i) else None.

Lemma open_log_file_X c i w : exists r w', forall l es n,
  open_log_file c (X l es n w) i = (r, X (upd (link_of c w i) l) es n w').
Proof.
  unfold open_log_file, link_of. destruct (p_open_U (name_of c w i) (c_append c) w) as [o [w2 E]].
  destruct o as [ino|]; eexists _, _; intros; rewrite do_symlink_X, name_of_X; red_let;
    (replace (if c_symlink c then Some (name_of c w i) else l) with (upd (if c_symlink c then Some (name_of c w i) else None) l)
       by (destruct (c_symlink c); reflexivity)); rewrite E; reflexivity.
Qed.

Lemma open_log_file_path c w i wr p w' : open_log_file c w i = (Ok (wr, p), w') -> p = name_of c w i.
Proof.
  unfold open_log_file. destruct (p_open (do_symlink c w (name_of c w i)) (name_of c w i) (c_append c)) as [[ino|] w2]; [|discriminate].
  intros E. injection E as _ <- _. reflexivity.
Qed.

(* ------------------------------------------------------------------ above the cleanup: the request counter is tracked *)
Definition V2 {A} (f : world -> A * world) (n : nat) (w : world) : Prop :=
  exists a w' n', forall l es, f (X l es n w) = (a, X l es n' w').

Lemma cleanup_or_queue_V c bg k flt cur n w : V2 (fun W => cleanup_or_queue c W bg k flt cur) n w.
Proof.
  unfold V2, cleanup_or_queue. destruct bg.
  - assert (G : exists a w' n', forall l es,
              (if Nat.eqb (wacts (X l es n w)) 1 then (Ok tt, X l es n w) else
               match cleanup_impl c (X l es n w) k flt cur with
               | (Panic, w1) => (Ok tt, set_acts w1 1)
               | (_, w1) => (Ok tt, w1)
               end) = (a, X l es n' w')).
    { xs. destruct (Nat.eqb n 1); [exists (Ok tt), w, n; reflexivity|].
      destruct (cleanup_impl_U c k flt cur w) as [r [w1 E]].
      destruct r as [u| |]; [exists (Ok tt), w1, n | exists (Ok tt), w1, n | exists (Ok tt), w1, 1]; intros; rewrite E; reflexivity. }
    destruct k; [exists (Ok tt), w, n; reflexivity | | |]; exact G.
  - destruct (cleanup_impl_U c k flt cur w) as [r [w1 E]]. exists r, w1, n. intros. apply E.
Qed.

(* ------------------------------------------------------------------ flush, shutdown, drop: no configuration involved *)
Lemma flush_state_U s w : U3 (fun W => flush_state s W) w.
Proof.
  unfold U3, flush_state. destruct (f_inner s) as [|o wr p]; [exists true, w, s; reflexivity|].
  destruct (w_flush_U wr w) as [ok [w1 [wr1 E]]]. eexists _, _, _. intros. rewrite E. reflexivity.
Qed.

Lemma shutdown_state_U s w : exists w' s', forall l es n, shutdown_state s (X l es n w) = (X l es n w', s').
Proof.
  unfold shutdown_state, drain_acts. destruct (f_inner s) as [|o wr p]; [exists w, s; reflexivity|].
  destruct (w_flush_U wr w) as [ok [w1 [wr1 E]]]. destruct ok; eexists _, _; intros; rewrite E; red_let; rewrite ?report_X; reflexivity.
Qed.

Lemma drop_state_U s w : U1 (fun W => drop_state s W) w.
Proof.
  unfold U1, drop_state. destruct (shutdown_state_U s w) as [w1 [s1 E1]]. destruct (shutdown_state_U s1 w1) as [w2 [s2 E2]].
  destruct (f_inner s2) as [|o wr p] eqn:Ei.
  - exists w2. intros. rewrite E1, E2, Ei. reflexivity.
  - destruct (w_drop_U wr w2) as [w3 E3]. exists w3. intros. rewrite E1, E2, Ei. apply E3.
Qed.

(* ------------------------------------------------------------------ initialize, mount_next, write_buffer with the opening
   function as a parameter: Model.initialize c = initialize_g (open_log_file c) c, and so on (by computation) *)
Definition opn_t := world -> option bytes -> res (writer * bytes) * world.

Definition initialize_g (o : opn_t) (c : config) (w : world) : res inner * world :=
  match c_rot c with
  | None =>
    bind (o w None) (fun wp w1 => (Ok (Active None (fst wp) (snd wp)), w1))
  | Some (crit, nam, k) =>
    bind (init_naming c w nam) (fun ni w1 =>
    let '(ns, infix) := ni in
    bind (o w1 (Some infix)) (fun wp w2 =>
    let '(wr, path) := wp in
    bind (roll_new w2 crit (c_append c) path) (fun roll w3 =>
    bind (match k with
          | KNever => (Ok tt, w3)
          | _ => cleanup_impl c w3 k (ns_filter ns) (if naming_writes_direct nam then Some path else None)
          end) (fun _ w4 =>
    let bg := match k with KNever => false | _ => c_bg c end in
    (Ok (Active (Some {| rs_naming := ns; rs_roll := roll; rs_cleanup := k; rs_bg := bg |}) wr path),
     if bg then set_acts w4 0 else w4)))))
  end.

Definition next_naming (c : config) (w : world) (ns : naming_state) : res bytes * world * naming_state :=
  match ns with
  | NSTs ts (Some cur) fmt =>
    match creation_ts_of_current c w cur true (Some ts) fmt with
    | (Ok ts', w') => (Ok cur, w', NSTs ts' (Some cur) fmt)
    | (Err, w') => (Err, w', ns)
    | (Panic, w') => (Panic, w', ns)
    end
  | NSTs _ None fmt =>
    let ts' := wnow w in
    match collision_free c w (infix_from_ts c w fmt ts') with
    | (Ok i, w') => (Ok i, w', NSTs ts' None fmt)
    | (Err, w') => (Err, w', NSTs ts' None fmt)
    | (Panic, w') => (Panic, w', NSTs ts' None fmt)
    end
  | NSNumR idx =>
    match index_for_rcurrent c w (Some idx) true with
    | (Ok idx', w') => (Ok cur_infix, w', NSNumR idx')
    | (Err, w') => (Err, w', NSNumR idx)
    | (Panic, w') => (Panic, w', NSNumR idx)
    end
  | NSNumD idx => (Ok (number_infix (idx + 1)), w, NSNumD (idx + 1))
  end.

Definition finish_rotation (c : config) (w2 : world) (rs : rot_state) (ns1 : naming_state) (wr wr' : writer) (path' : bytes)
  : res unit * world * inner :=
  let '(okf, w2a, wra) := w_flush w2 wr in
  let w2b := if okf then w2a else report EFlush w2a in
  let w3 := w_drop w2b wra in
  let roll' := reset_size_and_date w3 (rs_roll rs) path' in
  let '(rc, w4) := cleanup_or_queue c w3 (rs_bg rs) (rs_cleanup rs) (ns_filter ns1) (if ns_writes_direct ns1 then Some path' else None) in
  let st' := Active (Some {| rs_naming := ns1; rs_roll := roll'; rs_cleanup := rs_cleanup rs; rs_bg := rs_bg rs |}) wr' path' in
  (match rc with Ok _ => Ok tt | Err => Err | Panic => Panic end, w4, st').

Definition mount_next_g (o : opn_t) (c : config) (w : world) (st : inner) (force : bool) : res unit * world * inner :=
  match st with
  | Active (Some rs) wr path =>
    if force || rotation_necessary w (rs_roll rs) then
      let with_ns ns := Active (Some {| rs_naming := ns; rs_roll := rs_roll rs; rs_cleanup := rs_cleanup rs; rs_bg := rs_bg rs |}) wr path in
      let '(r, w1, ns1) := next_naming c w (rs_naming rs) in
      match r with
      | Ok infix =>
        match o w1 (Some infix) with
        | (Ok (wr', path'), w2) => finish_rotation c w2 rs ns1 wr wr' path'
        | (Err, w2) => (Err, w2, with_ns ns1)
        | (Panic, w2) => (Panic, w2, with_ns ns1)
        end
      | Err => (Err, w1, with_ns ns1)
      | Panic => (Panic, w1, with_ns ns1)
      end
    else (Ok tt, w, st)
  | _ => (Ok tt, w, st)
  end.

Definition init_part (o : opn_t) (c : config) (w : world) (i : inner) : res unit * world * inner :=
  match i with
  | Initial => match initialize_g o c w with
               | (Ok i, w') => (Ok tt, w', i)
               | (Err, w') => (Err, w', Initial)
               | (Panic, w') => (Panic, w', Initial)
               end
  | i => (Ok tt, w, i)
  end.

Definition write_rest (o : opn_t) (s : flw) (w0 : world) (st0 : inner) (b : bytes) : res unit * world * flw * bool :=
  let rotating := match st0 with
                  | Active (Some rs) _ _ => rotation_necessary w0 (rs_roll rs)
                  | _ => false end in
  let '(r1, w1, st1) := mount_next_g o (f_cfg s) w0 st0 false in
  match r1 with
  | Panic => (Panic, w1, poison (with_inner s st1), rotating)
  | _ =>
    let w2 := match r1 with Err => report ELogFile w1 | _ => w1 end in
    match st1 with
    | Active o_rot wr path =>
      let '(ok, w3, wr') := w_write w2 wr b in
      if ok then
        let o_rot' := match o_rot with
                      | Some rs => Some {| rs_naming := rs_naming rs; rs_roll := increase_size (rs_roll rs) (N.of_nat (length b));
                                           rs_cleanup := rs_cleanup rs; rs_bg := rs_bg rs |}
                      | None => None end in
        (Ok tt, w3, with_inner s (Active o_rot' wr' path), rotating)
      else (Err, w3, with_inner s (Active o_rot wr' path), rotating)
    | Initial => (Ok tt, w2, with_inner s st1, rotating)
    end
  end.

Definition write_buffer_g (o : opn_t) (s : flw) (w : world) (b : bytes) : res unit * world * flw * bool :=
  let '(r0, w0, st0) := init_part o (f_cfg s) w (f_inner s) in
  match r0 with
  | Ok _ => write_rest o s w0 st0 b
  | Err => (Err, w0, with_inner s st0, false)
  | Panic => (Panic, w0, poison (with_inner s st0), false)
  end.

Lemma initialize_g_eq c w : initialize c w = initialize_g (open_log_file c) c w.
Proof. reflexivity. Qed.
Lemma mount_next_g_eq c w st f : mount_next c w st f = mount_next_g (open_log_file c) c w st f.
Proof. reflexivity. Qed.
Lemma write_buffer_g_eq s w b : write_buffer s w b = write_buffer_g (open_log_file (f_cfg s)) s w b.
Proof.
  unfold write_buffer, write_buffer_g, init_part, write_rest. rewrite <- initialize_g_eq.
  destruct (f_inner s) as [|o wr p].
  - destruct (initialize (f_cfg s) w) as [[i| |] w0]; reflexivity.
  - reflexivity.
Qed.

(* ------------------------------------------------------------------ two opening functions that differ in the link only *)
Definition nolink (c : config) : config :=
  {| c_spec := c_spec c; c_append := c_append c; c_cap := c_cap c; c_rot := c_rot c; c_utc := c_utc c;
     c_symlink := false; c_bg := c_bg c; c_async := c_async c; c_start := c_start c |}.

Lemma nolink_id c : c_symlink c = false -> nolink c = c.
Proof. destruct c; cbn. intros ->. reflexivity. Qed.

(* the writer state is consistent with the link l (l0: the link before the writer was initialised) *)
Definition link_st (l0 l : option bytes) (st : inner) : Prop :=
  match st with Active _ _ p => l = Some p | Initial => l = l0 end.

(* o1 leaves the link alone, o2 sets it (ol = Some p) or not (ol = None), otherwise they do the same;
   good: o2 sets the link to the path it returns *)
Definition OPs (good : Prop) (o1 o2 : opn_t) : Prop :=
  forall w i, exists r w' ol,
    (forall l es n, o1 (X l es n w) i = (r, X l es n w'))
    /\ (forall l es n, o2 (X l es n w) i = (r, X (upd ol l) es n w'))
    /\ (good -> forall wr p, r = Ok (wr, p) -> ol = Some p).

Lemma OPs_left good o1 o2 : OPs good o1 o2 -> OPs False o1 o1.
Proof.
  intros H w i. destruct (H w i) as [r [w' [ol [A _]]]]. exists r, w', None. split; [exact A|]. split; [exact A | intros []].
Qed.

Lemma name_of_nolink c w i : name_of (nolink c) w i = name_of c w i.
Proof. unfold name_of, fixed_of, starttxt. reflexivity. Qed.

Lemma OPs_nolink c : OPs (c_symlink c = true) (open_log_file (nolink c)) (open_log_file c).
Proof.
  intros w i. destruct (p_open_U (name_of c w i) (c_append c) w) as [o [w2 E]].
  exists (match o with Some ino => Ok ({| wino := ino; wpend := []; wcap := c_cap c |}, name_of c w i) | None => Err end), w2, (link_of c w i).
  split; [|split].
  - intros. unfold open_log_file. rewrite do_symlink_X. cbn [nolink c_symlink c_append c_cap].
    rewrite name_of_nolink, name_of_X, E. destruct o; reflexivity.
  - intros. unfold open_log_file, link_of. rewrite do_symlink_X, name_of_X.
    replace (if c_symlink c then Some (name_of c w i) else l) with (upd (if c_symlink c then Some (name_of c w i) else None) l)
      by (destruct (c_symlink c); reflexivity).
    rewrite E. destruct o; reflexivity.
  - intros Hs wr p. unfold link_of. rewrite Hs. destruct o; [|discriminate]. intros H. injection H as _ <-. reflexivity.
Qed.

Lemma OPs_same c : c_symlink c = false -> OPs False (open_log_file c) (open_log_file c).
Proof. intros H. pose proof (OPs_left _ _ _ (OPs_nolink c)) as P. rewrite (nolink_id c H) in P. exact P. Qed.

Section Pair.
Variables (good : Prop) (o1 o2 : opn_t).
Hypothesis OP : OPs good o1 o2.

Lemma initialize_g_pair c n w :
  exists r w' n' ol,
    (forall l es, initialize_g o1 c (X l es n w) = (r, X l es n' w'))
    /\ (forall l es, initialize_g o2 c (X l es n w) = (r, X (upd ol l) es n' w'))
    /\ (good -> forall st, r = Ok st -> forall l0 l, link_st l0 (upd ol l) st).
Proof.
  unfold initialize_g. destruct (c_rot c) as [[[crit nam] k]|].
  - destruct (init_naming_U c nam w) as [r0 [w1 E0]].
    destruct r0 as [[ns infix]| |];
      [| exists Err, w1, n, None; split; [lf | split; [lf | intros _ st H; discriminate H]]
       | exists Panic, w1, n, None; split; [lf | split; [lf | intros _ st H; discriminate H]]].
    destruct (OP w1 (Some infix)) as [r1 [w2 [ol [A1 [B1 G1]]]]].
    destruct r1 as [[wr path]| |];
      [| exists Err, w2, n, ol; split; [lf | split; [lf | intros _ st H; discriminate H]]
       | exists Panic, w2, n, ol; split; [lf | split; [lf | intros _ st H; discriminate H]]].
    destruct (roll_new_U crit (c_append c) path w2) as [r2 [w3 E2]].
    destruct r2 as [roll| |];
      [| exists Err, w3, n, ol; split; [lf | split; [lf | intros _ st H; discriminate H]]
       | exists Panic, w3, n, ol; split; [lf | split; [lf | intros _ st H; discriminate H]]].
    assert (K : U2 (fun W => match k with
                             | KNever => (Ok tt, W)
                             | _ => cleanup_impl c W k (ns_filter ns) (if naming_writes_direct nam then Some path else None) end) w3).
    { destruct k; [exists (Ok tt), w3; reflexivity | | |]; apply cleanup_impl_U. }
    destruct K as [r3 [w4 E3]].
    destruct r3 as [[]| |];
      [| exists Err, w4, n, ol; split; [lf | split; [lf | intros _ st H; discriminate H]]
       | exists Panic, w4, n, ol; split; [lf | split; [lf | intros _ st H; discriminate H]]].
    destruct (match k with KNever => false | _ => c_bg c end) eqn:Ebg.
    + eexists _, w4, 0, ol. split; [lf | split; [lf|]].
      intros Hg st H l0 l. injection H as <-. cbn [link_st]. rewrite (G1 Hg wr path eq_refl). reflexivity.
    + eexists _, w4, n, ol. split; [lf | split; [lf|]].
      intros Hg st H l0 l. injection H as <-. cbn [link_st]. rewrite (G1 Hg wr path eq_refl). reflexivity.
  - destruct (OP w None) as [r1 [w2 [ol [A1 [B1 G1]]]]].
    destruct r1 as [[wr path]| |];
      [| exists Err, w2, n, ol; split; [lf | split; [lf | intros _ st H; discriminate H]]
       | exists Panic, w2, n, ol; split; [lf | split; [lf | intros _ st H; discriminate H]]].
    eexists _, w2, n, ol. split; [lf | split; [lf|]].
    intros Hg st H l0 l. injection H as <-. cbn [link_st fst snd]. rewrite (G1 Hg wr path eq_refl). reflexivity.
Qed.
End Pair.

Lemma next_naming_U c ns w : U3 (fun W => next_naming c W ns) w.
Proof.
  unfold U3, next_naming. destruct ns as [ts [cur|] fmt|idx|idx].
  - destruct (creation_ts_of_current_U c cur true (Some ts) fmt w) as [r [w1 E]]. destruct r; eexists _, _, _; lf.
  - destruct (collision_free_U c (infix_from_ts c w fmt (wnow w)) w) as [r [w1 E]]. destruct r; eexists _, _, _; lf.
  - destruct (index_for_rcurrent_U c (Some idx) true w) as [r [w1 E]]. destruct r; eexists _, _, _; lf.
  - eexists _, _, _. reflexivity.
Qed.

Lemma finish_rotation_V c rs ns1 wr wr' path' n w :
  exists r w' o' n', forall l es, finish_rotation c (X l es n w) rs ns1 wr wr' path' = (r, X l es n' w', Active o' wr' path').
Proof.
  unfold finish_rotation. destruct (w_flush_U wr w) as [okf [w2a [wra EF]]].
  assert (B : exists w2b, forall l es n, (if okf then X l es n w2a else report EFlush (X l es n w2a)) = X l es n w2b).
  { destruct okf; [exists w2a; reflexivity|]. exists (rep EFlush w2a). intros. apply report_X. }
  destruct B as [w2b EB]. destruct (w_drop_U wra w2b) as [w3 ED].
  destruct (cleanup_or_queue_V c (rs_bg rs) (rs_cleanup rs) (ns_filter ns1) (if ns_writes_direct ns1 then Some path' else None) n w3) as [rc [w4 [n' EC]]].
  eexists _, w4, _, n'. intros. rewrite EF. red_let. rewrite EB, ED, reset_size_and_date_X, EC. reflexivity.
Qed.

Section Pair2.
Variables (good : Prop) (o1 o2 : opn_t).
Hypothesis OP : OPs good o1 o2.

Lemma mount_next_g_pair c n w st f :
  exists r w' st' n' ol,
    (forall l es, mount_next_g o1 c (X l es n w) st f = (r, X l es n' w', st'))
    /\ (forall l es, mount_next_g o2 c (X l es n w) st f = (r, X (upd ol l) es n' w', st'))
    /\ (good -> r = Ok tt -> forall l0 l, link_st l0 l st -> link_st l0 (upd ol l) st').
Proof.
  unfold mount_next_g.
  assert (Triv : exists r w' st' n' ol,
            (forall l es : _, (Ok tt, X l es n w, st) = (r, X l es n' w', st'))
            /\ (forall l es : _, (Ok tt, X l es n w, st) = (r, X (upd ol l) es n' w', st'))
            /\ (good -> r = Ok tt -> forall l0 l, link_st l0 l st -> link_st l0 (upd ol l) st')).
  { exists (Ok tt), w, st, n, None. split; [reflexivity|]. split; [reflexivity|]. intros _ _ l0 l H. exact H. }
  destruct st as [|[rs|] wr path]; try exact Triv.
  destruct (f || rotation_necessary w (rs_roll rs))%bool eqn:Hc;
    [|destruct Triv as [r [w' [st' [n' [ol [T1 [T2 T3]]]]]]]; exists r, w', st', n', ol;
      split; [intros; rewrite rotation_necessary_X, Hc; apply T1 | split; [intros; rewrite rotation_necessary_X, Hc; apply T2 | exact T3]]].
  destruct (next_naming_U c (rs_naming rs) w) as [r0 [w1 [ns1 E0]]].
  destruct r0 as [infix| |];
    [| eexists Err, w1, _, n, None; split; [intros; rewrite rotation_necessary_X, Hc, E0; reflexivity
         | split; [intros; rewrite rotation_necessary_X, Hc, E0; reflexivity | intros _ H; discriminate H]]
     | eexists Panic, w1, _, n, None; split; [intros; rewrite rotation_necessary_X, Hc, E0; reflexivity
         | split; [intros; rewrite rotation_necessary_X, Hc, E0; reflexivity | intros _ H; discriminate H]]].
  destruct (OP w1 (Some infix)) as [r1 [w2 [ol [A1 [B1 G1]]]]].
  destruct r1 as [[wr' path']| |];
    [| eexists Err, w2, _, n, ol; split; [intros; rewrite rotation_necessary_X, Hc, E0; red_let; rewrite A1; reflexivity
         | split; [intros; rewrite rotation_necessary_X, Hc, E0; red_let; rewrite B1; reflexivity | intros _ H; discriminate H]]
     | eexists Panic, w2, _, n, ol; split; [intros; rewrite rotation_necessary_X, Hc, E0; red_let; rewrite A1; reflexivity
         | split; [intros; rewrite rotation_necessary_X, Hc, E0; red_let; rewrite B1; reflexivity | intros _ H; discriminate H]]].
  destruct (finish_rotation_V c rs ns1 wr wr' path' n w2) as [r [w4 [o' [n' EF]]]].
  exists r, w4, (Active o' wr' path'), n', ol.
  split; [intros; rewrite rotation_necessary_X, Hc, E0; red_let; rewrite A1; apply EF|].
  split; [intros; rewrite rotation_necessary_X, Hc, E0; red_let; rewrite B1; apply EF|].
  intros Hg _ l0 l _. cbn [link_st]. rewrite (G1 Hg wr' path' eq_refl). reflexivity.
Qed.
End Pair2.

(* ------------------------------------------------------------------ the error channel only grows *)
Lemma initialize_g_grow o c n w r w' n' : OPs False o o ->
  (forall l es, initialize_g o c (X l es n w) = (r, X l es n' w')) -> exists e, werrs w' = werrs w ++ e.
Proof.
  intros OP E. destruct (initialize_g_pair False o o OP c n (noerr w)) as [r2 [w2 [n2 [ol [E2 _]]]]].
  specialize (E None []). specialize (E2 None (werrs w)). rewrite X_noerr, E in E2.
  apply (grow_help None n' n2 w w' w2). congruence.
Qed.

Lemma mount_next_g_grow o c n w st f r w' st' n' : OPs False o o ->
  (forall l es, mount_next_g o c (X l es n w) st f = (r, X l es n' w', st')) -> exists e, werrs w' = werrs w ++ e.
Proof.
  intros OP E. destruct (mount_next_g_pair False o o OP c n (noerr w) st f) as [r2 [w2 [st2 [n2 [ol [E2 _]]]]]].
  specialize (E None []). specialize (E2 None (werrs w)). rewrite X_noerr, E in E2.
  apply (grow_help None n' n2 w w' w2). congruence.
Qed.

Lemma w_write_grow wr b w ok w' wr' :
  (forall l es n, w_write (X l es n w) wr b = (ok, X l es n w', wr')) -> exists e, werrs w' = werrs w ++ e.
Proof.
  intros E. destruct (w_write_U wr b (noerr w)) as [ok2 [w2 [wr2 E2]]].
  specialize (E None [] 0). specialize (E2 None (werrs w) 0). rewrite X_noerr, E in E2.
  apply (grow_help None 0 0 w w' w2). congruence.
Qed.

Lemma upd_upd ol ol0 l : upd ol (upd ol0 l) = upd (upd ol ol0) l.
Proof. destruct ol, ol0; reflexivity. Qed.

Lemma app_self_nil {A} (l e : list A) : l ++ e = l -> e = [].
Proof. intros H. apply (app_inv_head l). rewrite app_nil_r. exact H. Qed.

Section Pair3.
Variables (good : Prop) (o1 o2 : opn_t).
Hypothesis OP : OPs good o1 o2.

Lemma init_part_pair c n w i :
  exists r0 w0 st0 n0 ol,
    (forall l es, init_part o1 c (X l es n w) i = (r0, X l es n0 w0, st0))
    /\ (forall l es, init_part o2 c (X l es n w) i = (r0, X (upd ol l) es n0 w0, st0))
    /\ (exists e, werrs w0 = werrs w ++ e)
    /\ (good -> r0 = Ok tt -> forall l0 l, link_st l0 l i -> link_st l0 (upd ol l) st0).
Proof.
  unfold init_part. destruct i as [|o wr p].
  - destruct (initialize_g_pair good o1 o2 OP c n w) as [r [w0 [n0 [ol [A [B G]]]]]].
    pose proof (initialize_g_grow o1 c n w r w0 n0 (OPs_left _ _ _ OP) A) as Gr.
    destruct r as [i| |].
    + exists (Ok tt), w0, i, n0, ol. split; [intros; rewrite A; reflexivity|]. split; [intros; rewrite B; reflexivity|].
      split; [exact Gr|]. intros Hg _ l0 l _. exact (G Hg i eq_refl l0 l).
    + exists Err, w0, Initial, n0, ol. split; [intros; rewrite A; reflexivity|]. split; [intros; rewrite B; reflexivity|].
      split; [exact Gr|]. intros _ H. discriminate H.
    + exists Panic, w0, Initial, n0, ol. split; [intros; rewrite A; reflexivity|]. split; [intros; rewrite B; reflexivity|].
      split; [exact Gr|]. intros _ H. discriminate H.
  - exists (Ok tt), w, (Active o wr p), n, None. split; [reflexivity|]. split; [reflexivity|].
    split; [exists []; rewrite app_nil_r; reflexivity|]. intros _ _ l0 l H. exact H.
Qed.

Lemma write_rest_pair s n w0 st0 b :
  exists r w' s' rot n' ol,
    (forall l es, write_rest o1 s (X l es n w0) st0 b = (r, X l es n' w', s', rot))
    /\ (forall l es, write_rest o2 s (X l es n w0) st0 b = (r, X (upd ol l) es n' w', s', rot))
    /\ (exists e, werrs w' = werrs w0 ++ e)
    /\ (good -> r = Ok tt -> werrs w' = werrs w0 -> forall l0 l, link_st l0 l st0 -> link_st l0 (upd ol l) (f_inner s')).
Proof.
  unfold write_rest.
  destruct (mount_next_g_pair good o1 o2 OP (f_cfg s) n w0 st0 false) as [r1 [w1 [st1 [n1 [ol [A [B G]]]]]]].
  destruct (mount_next_g_grow o1 (f_cfg s) n w0 st0 false r1 w1 st1 n1 (OPs_left _ _ _ OP) A) as [e1 Gr1].
  set (rot := match st0 with Active (Some rs) _ _ => rotation_necessary w0 (rs_roll rs) | _ => false end).
  assert (Erot : forall l es, match st0 with Active (Some rs) _ _ => rotation_necessary (X l es n w0) (rs_roll rs) | _ => false end = rot).
  { intros. subst rot. destruct st0 as [|[rs|] wr0 p0]; rewrite ?rotation_necessary_X; reflexivity. }
  destruct r1 as [[]| |].
  - destruct st1 as [|o_rot wr path].
    + exists (Ok tt), w1, (with_inner s Initial), rot, n1, ol.
      split; [intros; rewrite Erot, A; reflexivity|]. split; [intros; rewrite Erot, B; reflexivity|]. split; [eauto|].
      intros Hg _ _ l0 l H. exact (G Hg eq_refl l0 l H).
    + destruct (w_write_U wr b w1) as [ok [w3 [wr3 EW]]]. destruct (w_write_grow wr b w1 ok w3 wr3 EW) as [e3 Gr3].
      assert (Gr : exists e, werrs w3 = werrs w0 ++ e) by (exists (e1 ++ e3); rewrite Gr3, Gr1, app_assoc; reflexivity).
      destruct ok.
      * eexists (Ok tt), w3, _, rot, n1, ol.
        split; [intros; rewrite Erot, A; red_let; rewrite EW; reflexivity|]. split; [intros; rewrite Erot, B; red_let; rewrite EW; reflexivity|].
        split; [exact Gr|]. intros Hg _ _ l0 l H. exact (G Hg eq_refl l0 l H).
      * eexists Err, w3, _, rot, n1, ol.
        split; [intros; rewrite Erot, A; red_let; rewrite EW; reflexivity|]. split; [intros; rewrite Erot, B; red_let; rewrite EW; reflexivity|].
        split; [exact Gr|]. intros _ H. discriminate H.
  - (* the rotation failed: reported, the write goes on *)
    destruct st1 as [|o_rot wr path].
    + exists (Ok tt), (rep ELogFile w1), (with_inner s Initial), rot, n1, ol.
      split; [intros; rewrite Erot, A; red_let; rewrite report_X; reflexivity|].
      split; [intros; rewrite Erot, B; red_let; rewrite report_X; reflexivity|].
      split; [exists (e1 ++ [ELogFile]); cbn [rep werrs]; rewrite Gr1, app_assoc; reflexivity|].
      intros _ _ H. exfalso. cbn [rep werrs] in H. rewrite Gr1, <- app_assoc in H. apply app_self_nil in H.
      destruct e1; discriminate H.
    + destruct (w_write_U wr b (rep ELogFile w1)) as [ok [w3 [wr3 EW]]].
      destruct (w_write_grow wr b (rep ELogFile w1) ok w3 wr3 EW) as [e3 Gr3].
      assert (Gr : werrs w3 = werrs w0 ++ (e1 ++ ELogFile :: e3)).
      { rewrite Gr3. cbn [rep werrs]. rewrite Gr1, <- !app_assoc. reflexivity. }
      assert (No : werrs w3 = werrs w0 -> False).
      { intros H. rewrite Gr in H. apply app_self_nil in H. destruct e1; discriminate H. }
      destruct ok.
      * eexists (Ok tt), w3, _, rot, n1, ol.
        split; [intros; rewrite Erot, A; red_let; rewrite report_X, EW; reflexivity|].
        split; [intros; rewrite Erot, B; red_let; rewrite report_X, EW; reflexivity|].
        split; [eauto|]. intros _ _ H. destruct (No H).
      * eexists Err, w3, _, rot, n1, ol.
        split; [intros; rewrite Erot, A; red_let; rewrite report_X, EW; reflexivity|].
        split; [intros; rewrite Erot, B; red_let; rewrite report_X, EW; reflexivity|].
        split; [eauto|]. intros _ H. discriminate H.
  - exists Panic, w1, (poison (with_inner s st1)), rot, n1, ol.
    split; [intros; rewrite Erot, A; reflexivity|]. split; [intros; rewrite Erot, B; reflexivity|]. split; [eauto|]. intros _ H. discriminate H.
Qed.

(* write_buffer: the two opening functions give the same result, state, flag and - up to the link - world;
   the error channel only grows; and when the result is Ok and nothing was reported (in particular: no rotation
   failed under way), the link is consistent with the new state if it was with the old one *)
Lemma write_buffer_g_pair s n w b :
  exists r w' s' rot n' ol,
    (forall l es, write_buffer_g o1 s (X l es n w) b = (r, X l es n' w', s', rot))
    /\ (forall l es, write_buffer_g o2 s (X l es n w) b = (r, X (upd ol l) es n' w', s', rot))
    /\ (exists e, werrs w' = werrs w ++ e)
    /\ (good -> r = Ok tt -> werrs w' = werrs w -> forall l0 l, link_st l0 l (f_inner s) -> link_st l0 (upd ol l) (f_inner s')).
Proof.
  unfold write_buffer_g.
  destruct (init_part_pair (f_cfg s) n w (f_inner s)) as [r0 [w0 [st0 [n0 [ol0 [A0 [B0 [[e0 Gr0] G0]]]]]]]].
  destruct r0 as [[]| |].
  - destruct (write_rest_pair s n0 w0 st0 b) as [r [w' [s' [rot [n' [ol [A [B [[e Gr] G]]]]]]]]].
    exists r, w', s', rot, n', (upd ol ol0).
    split; [intros; rewrite A0; apply A|]. split; [intros; rewrite B0, <- upd_upd; apply B|].
    split; [exists (e0 ++ e); rewrite Gr, Gr0, app_assoc; reflexivity|].
    intros Hg Hr He l0 l H. rewrite <- upd_upd.
    assert (E0 : e0 = []).
    { rewrite Gr, Gr0, <- app_assoc in He. apply app_self_nil in He. destruct e0; [reflexivity | discriminate He]. }
    subst e0. rewrite app_nil_r in Gr0. apply (G Hg Hr); [congruence|]. exact (G0 Hg eq_refl l0 l H).
  - exists Err, w0, (with_inner s st0), false, n0, ol0.
    split; [intros; rewrite A0; reflexivity|]. split; [intros; rewrite B0; reflexivity|]. split; [eauto|]. intros _ H. discriminate H.
  - exists Panic, w0, (poison (with_inner s st0)), false, n0, ol0.
    split; [intros; rewrite A0; reflexivity|]. split; [intros; rewrite B0; reflexivity|]. split; [eauto|]. intros _ H. discriminate H.
Qed.
End Pair3.

(* ------------------------------------------------------------------ the same facts for a single world without pending kill *)
Lemma open_log_file_env c W i r W' : wkill W = None -> open_log_file c W i = (r, W') ->
  wkill W' = None /\ wacts W' = wacts W.
Proof.
  intros K E. destruct (open_log_file_X c i W) as [r2 [w2 A]]. rewrite (alive_X W K), A in E. injection E as _ <-. split; reflexivity.
Qed.

Lemma report_env e W : wkill W = None -> wkill (report e W) = None /\ wacts (report e W) = wacts W /\ werrs (report e W) = werrs W ++ [e].
Proof. intros K. unfold report. rewrite K. cbn. repeat split; assumption. Qed.

Lemma mount_next_grow c W st f r W' st' : c_symlink c = false -> wkill W = None ->
  mount_next c W st f = (r, W', st') -> wkill W' = None /\ exists e, werrs W' = werrs W ++ e.
Proof.
  intros Hs K E. rewrite mount_next_g_eq in E. pose proof (OPs_same c Hs) as OP.
  destruct (mount_next_g_pair False _ _ OP c (wacts W) W st f) as [r2 [w2 [st2 [n2 [ol [A _]]]]]].
  destruct (mount_next_g_grow _ c _ W st f r2 w2 st2 n2 OP A) as [e Gr].
  specialize (A (wlink W) []). rewrite <- (alive_X W K), E in A. injection A as _ -> _. split; [reflexivity|]. exists e. exact Gr.
Qed.

Lemma w_write_grow_c W wr b ok W' wr' : wkill W = None -> w_write W wr b = (ok, W', wr') -> exists e, werrs W' = werrs W ++ e.
Proof.
  intros K E. destruct (w_write_U wr b W) as [ok2 [w2 [wr2 A]]]. destruct (w_write_grow wr b W ok2 w2 wr2 A) as [e Gr].
  specialize (A (wlink W) [] (wacts W)). rewrite <- (alive_X W K), E in A. injection A as _ -> _. exists e. exact Gr.
Qed.

Lemma write_buffer_grow s W b r W' s' rot : c_symlink (f_cfg s) = false -> wkill W = None ->
  write_buffer s W b = (r, W', s', rot) -> wkill W' = None /\ exists e, werrs W' = werrs W ++ e.
Proof.
  intros Hs K E. rewrite write_buffer_g_eq in E. pose proof (OPs_same (f_cfg s) Hs) as OP.
  destruct (write_buffer_g_pair False _ _ OP s (wacts W) W b) as [r2 [w2 [s2 [rot2 [n2 [ol [A [_ [[e Gr] _]]]]]]]]].
  specialize (A (wlink W) []). rewrite <- (alive_X W K), E in A. injection A as _ -> _ _. split; [reflexivity|]. exists e. exact Gr.
Qed.
