(* C19 with rotation and a compressing cleanup: the model does what the specification FaultGzSpec.simg says - for EVERY
   fault oracle and EVERY list of records (Numbers naming, size criterion, direct mode, cleanup KeepLogFiles /
   KeepCompressedFiles / KeepLogAndCompressedFiles in the caller's thread, synchronous, no symlink, no start-time part
   in the name; with and without append; empty records included).  The refinement proof is FaultCleanup.faults_cleanup_dir;
   here it is read as a statement on what a reader of the directory finds (hview). *)
Require Import FL.Flw.TsReader FL.Flw.ListingExact.
Require Import FL.Base.Bytes FL.Fs.Fs FL.Names.FileSpec FL.Flw.Model FL.Flw.NumFs FL.Flw.NumInv FL.Flw.Run FL.Flw.NumRestart
  FL.Flw.FaultFacts FL.Flw.FaultRotSpec FL.Flw.FaultRotation FL.Flw.NumCleanupNames FL.Flw.NumCleanupStep FL.Flw.NumCleanupRun
  FL.Flw.FaultCleanupSpec FL.Flw.FaultCleanup FL.Flw.FaultGzSpec.
From Coq Require Import ZifyN ZifyNat ZifyBool Permutation Sorted.
Open Scope nat_scope.

(* ------------------------------------------------------------------ the directory *)
Section HDir.
Variable c : config.
Hypothesis Hsfx : sfx_ok (c_spec c).

(* exactly: the plain closed files r<i>, the complete archives r<i>.gz with what gunzip yields, rCURRENT iff ocur *)
Record hdir (f : fs) (pl ar : cdir) (ocur : option nat) : Prop := {
  hd_wf : fs_wf f;
  hd_nd : nodup_names f;
  hd_ascp : asc pl;
  hd_asca : asc ar;
  hd_plain : forall i d, In (i, d) pl -> exists j, lookup f (rname c i) = Some j /\ plain (inode f j) /\ content f j = d;
  hd_arch : forall i g, In (i, g) ar ->
      exists j, lookup f (gname c i) = Some j /\ fdata (inode f j) = g /\ fgz (inode f j) = 1%N /\ fdir (inode f j) = false;
  hd_cur : match ocur with
           | Some j => lookup f (cname c) = Some j /\ plain (inode f j)
           | None => lookup f (cname c) = None
           end;
  hd_only : forall nm j, lookup f nm = Some j ->
      nm = cname c \/ (exists i d, In (i, d) pl /\ nm = rname c i) \/ (exists i g, In (i, g) ar /\ nm = gname c i) }.

Lemma hdir_xdir f pl ar o : hdir f pl ar o <-> xdir c f pl ar o.
Proof. split; intros [W N Ap Aa P A C O]; constructor; assumption. Qed.

Lemma hdir_fresh_plain f pl ar o idx : hdir f pl ar o -> (forall i e, In (i, e) pl -> i < idx) -> lookup f (rname c idx) = None.
Proof. intros G. apply hdir_xdir in G. exact (xdir_fresh_plain c f pl ar o idx G). Qed.

End HDir.

Section G.
Variables (c : config) (m : N) (k : cleanup) (ll cl : nat).
Hypothesis Hcfg : numkcfg c (CSize m) k.
Hypothesis Hk : klim k = Some (ll, cl).
Hypothesis Hcap : c_cap c = None.
Hypothesis Hsfx : sfx_ok (c_spec c).

(* what a reader finds: exactly the plain closed files r<i> with their contents, the complete archives r<i>.gz with what
   gunzip yields, rCURRENT with its content or no rCURRENT, nothing else *)
Definition hview (f : fs) (pl ar : cdir) (ocur : option bytes) : Prop :=
  fs_wf f /\ asc pl /\ asc ar
  /\ (forall i d, In (i, d) pl -> exists j, lookup f (rname c i) = Some j /\ plain (inode f j) /\ content f j = d)
  /\ (forall i g, In (i, g) ar ->
        exists j, lookup f (gname c i) = Some j /\ fdata (inode f j) = g /\ fgz (inode f j) = 1%N /\ fdir (inode f j) = false)
  /\ match ocur with
     | Some d => exists j, lookup f (cname c) = Some j /\ plain (inode f j) /\ content f j = d
     | None => lookup f (cname c) = None
     end
  /\ (forall nm j, lookup f nm = Some j ->
        nm = cname c \/ (exists i d, In (i, d) pl /\ nm = rname c i) \/ (exists i g, In (i, g) ar /\ nm = gname c i)).

Lemma hdir_hview f pl ar o ocur : hdir c f pl ar o -> cur_is f ocur o -> hview f pl ar ocur.
Proof.
  intros G H. split; [exact (hd_wf _ _ _ _ _ G)|]. split; [exact (hd_ascp _ _ _ _ _ G)|]. split; [exact (hd_asca _ _ _ _ _ G)|].
  split; [exact (hd_plain _ _ _ _ _ G)|]. split; [exact (hd_arch _ _ _ _ _ G)|].
  split; [|exact (hd_only _ _ _ _ _ G)]. pose proof (hd_cur _ _ _ _ _ G) as Hc.
  destruct ocur as [d|], o as [j|]; try contradiction; [destruct Hc as [L P]; exists j; auto | exact Hc].
Qed.

End G.

(* the run and the specification, state by state; no name occurs twice in the directory *)
Theorem faults_rotation_gz_st c m k ll cl t0 off fl recs :
  numkcfg c (CSize m) k -> klim k = Some (ll, cl) -> c_cap c = None -> sfx_ok (c_spec c) ->
  (N.of_nat (length recs) <= u32_max)%N ->
  let r := run (fsys t0 off fl) (OStart c :: List.map OWrite recs) in
  let '(st, errs, rest) := simg_st (c_append c) m ll (ll + cl) (GInit [] [] false) fl recs in
  hview c (wfs (s_w (fst r))) (g_plain st) (g_arch st) (g_cur st)
  /\ nodup_names (wfs (s_w (fst r)))
  /\ werrs (s_w (fst r)) = errs
  /\ wfaults (s_w (fst r)) = rest
  /\ Forall obs_normal (snd r).
Proof.
  intros Hcfg Hk Hcap Hsfx HB. cbv zeta.
  pose proof (faults_cleanup_dir c m k ll cl t0 off fl recs Hcfg Hk Hcap Hsfx HB) as R. cbv zeta in R.
  destruct (simg_st (c_append c) m ll (ll + cl) (GInit [] [] false) fl recs) as [[st e] fl'].
  destruct R as [(o & G & Ho) R]. split; [|split; [exact (xd_nd _ _ _ _ _ G) | exact R]].
  apply (hdir_hview c _ _ _ o); [apply hdir_xdir; exact G | exact Ho].
Qed.

(* For every fault oracle fl and every list of records: after  OStart c :: map OWrite recs  from the empty directory with
   the oracle fl, the directory is exactly what simg says - the plain closed files, the archives (complete gzip files,
   what gunzip yields), rCURRENT or no rCURRENT, nothing else -, the error channel holds exactly the errors simg lists,
   the oracle is consumed as simg says, and every log call (and the start) returns normally *)
Theorem faults_rotation_gz c m k ll cl t0 off fl recs :
  numkcfg c (CSize m) k -> klim k = Some (ll, cl) -> c_cap c = None -> sfx_ok (c_spec c) ->
  (N.of_nat (length recs) <= u32_max)%N ->
  let r := run (fsys t0 off fl) (OStart c :: List.map OWrite recs) in
  let '(plain, archives, ocur, errs, rest) := simg (c_append c) m ll (ll + cl) fl recs in
  hview c (wfs (s_w (fst r))) plain archives ocur
  /\ werrs (s_w (fst r)) = errs
  /\ wfaults (s_w (fst r)) = rest
  /\ (forall o, In o (snd r) -> exists rot, o = ObsRes 0 rot).
Proof.
  intros Hcfg Hk Hcap Hsfx HB. cbv zeta. unfold simg.
  pose proof (faults_rotation_gz_st c m k ll cl t0 off fl recs Hcfg Hk Hcap Hsfx HB) as R. cbv zeta in R.
  destruct (simg_st (c_append c) m ll (ll + cl) (GInit [] [] false) fl recs) as [[st e] fl'].
  destruct R as [V [_ [He [Hf O]]]]. rewrite Forall_forall in O. auto.
Qed.
Print Assumptions faults_rotation_gz.

(* record by record (see FaultGzSpec.lost_only_around_failures_g): the log - the contents of the files closed for good, then
   the writer's file - is the concatenation of the records that were kept; every plain closed file and every archive in
   the directory is a closed file of the log with its content, or empty; a record is missing only if its own log call
   consumed a failing entry, and is then reported with EWrite *)
Theorem faults_rotation_gz_trace c m k ll cl t0 off fl recs :
  numkcfg c (CSize m) k -> klim k = Some (ll, cl) -> c_cap c = None -> sfx_ok (c_spec c) ->
  (N.of_nat (length recs) <= u32_max)%N ->
  let x := fst (run (fsys t0 off fl) (OStart c :: List.map OWrite recs)) in
  let t := gtrace (c_append c) m ll (ll + cl) (GInit [] [] false) fl recs in
  let lg := glog (c_append c) m ll (ll + cl) (GInit [] [] false) fl recs in
  exists st,
    hview c (wfs (s_w x)) (g_plain st) (g_arch st) (g_cur st)
    /\ concat (List.map snd lg) ++ g_wcur st = concat (List.map t_kept t)
    /\ (forall p, In p (g_pl st) \/ In p (g_arch st) -> In p lg \/ snd p = [])
    /\ List.map t_rec t = recs
    /\ werrs (s_w x) = concat (List.map t_errs t)
    /\ fl = concat (List.map t_used t) ++ wfaults (s_w x)
    /\ (forall e, In e t -> length (t_errs e) = ntrue (t_used e))
    /\ (forall e, In e t -> (forall f, In f (t_used e) -> f = false) -> t_errs e = [] /\ t_kept e = t_rec e)
    /\ (forall e, In e t -> t_kept e <> t_rec e -> In true (t_used e) /\ In EWrite (t_errs e)).
Proof.
  intros Hcfg Hk Hcap Hsfx HB. cbv zeta.
  pose proof (faults_rotation_gz c m k ll cl t0 off fl recs Hcfg Hk Hcap Hsfx HB) as Fr. cbv zeta in Fr. unfold simg in Fr.
  pose proof (lost_only_around_failures_g (c_append c) m ll (ll + cl) fl recs) as L.
  destruct (simg_st (c_append c) m ll (ll + cl) (GInit [] [] false) fl recs) as [[st e] fl']. cbv zeta in L.
  destruct Fr as [V [He [Hf _]]]. destruct L as [H1 [H2 [H3 [H4 [H5 [H6 [H7 H8]]]]]]].
  exists st. rewrite He, Hf. split; [exact V|]. split; [exact H4|]. split; [exact H5|]. split; [exact H1|]. split; [exact H3|].
  split; [exact H2|]. auto.
Qed.
Print Assumptions faults_rotation_gz_trace.

Theorem faults_rotation_gz_stream c m k ll cl t0 off fl recs :
  numkcfg c (CSize m) k -> klim k = Some (ll, cl) -> c_cap c = None -> sfx_ok (c_spec c) ->
  (N.of_nat (length recs) <= u32_max)%N ->
  let x := fst (run (fsys t0 off fl) (OStart c :: List.map OWrite recs)) in
  exists st kept,
    hview c (wfs (s_w x)) (g_plain st) (g_arch st) (g_cur st)
    /\ concat (List.map snd (glog (c_append c) m ll (ll + cl) (GInit [] [] false) fl recs)) ++ g_wcur st = concat kept
    /\ Subseq kept recs
    /\ length recs = length kept + nlost (werrs (s_w x))
    /\ nlost (werrs (s_w x)) <= length (werrs (s_w x)).
Proof.
  intros Hcfg Hk Hcap Hsfx HB. cbv zeta.
  pose proof (faults_rotation_gz c m k ll cl t0 off fl recs Hcfg Hk Hcap Hsfx HB) as Fr. cbv zeta in Fr. unfold simg in Fr.
  pose proof (loss_is_reported_g (c_append c) m ll (ll + cl) recs (GInit [] [] false) fl) as L.
  destruct (simg_st (c_append c) m ll (ll + cl) (GInit [] [] false) fl recs) as [[st e] fl'].
  destruct Fr as [V [He _]]. destruct L as [kept [Hs [Hst [Hl Hle]]]].
  exists st, kept. rewrite He. split; [exact V|]. split; [exact Hst|]. auto.
Qed.
Print Assumptions faults_rotation_gz_stream.

(* THE LIMITS ARE RESTORED, at the level of the run: when the oracle has been used up by recs1 and the next log call
   initialises or rotates, then after it and whatever records follow: the writer is on rCURRENT, at most ll plain closed
   files and at most ll + cl closed files (plain and archives) exist, and nothing more has been reported *)
Theorem gz_limit_restored c m k ll cl t0 off fl recs1 b recs2 :
  numkcfg c (CSize m) k -> klim k = Some (ll, cl) -> c_cap c = None -> sfx_ok (c_spec c) ->
  (N.of_nat (length (recs1 ++ b :: recs2)) <= u32_max)%N ->
  let '(st1, e1, fl1) := simg_st (c_append c) m ll (ll + cl) (GInit [] [] false) fl recs1 in
  all_false fl1 -> grotates m st1 = true ->
  let x := fst (run (fsys t0 off fl) (OStart c :: List.map OWrite (recs1 ++ b :: recs2))) in
  exists pl ar d, hview c (wfs (s_w x)) pl ar (Some d) /\ length pl <= ll /\ length pl + length ar <= ll + cl /\ werrs (s_w x) = e1.
Proof.
  intros Hcfg Hk Hcap Hsfx HB.
  pose proof (faults_rotation_gz c m k ll cl t0 off fl (recs1 ++ b :: recs2) Hcfg Hk Hcap Hsfx HB) as Fr. cbv zeta in Fr. unfold simg in Fr.
  rewrite simg_st_app in Fr.
  pose proof (simg_st_pending (c_append c) m ll (ll + cl) recs1 (GInit [] [] false) fl I) as P1.
  destruct (simg_st (c_append c) m ll (ll + cl) (GInit [] [] false) fl recs1) as [[st1 e1] fl1] eqn:E1. cbn [fst] in P1.
  intros Hf Hr. cbv zeta.
  assert (Hr' : grotates m (fst (fst (simg_st (c_append c) m ll (ll + cl) st1 fl1 []))) = true) by exact Hr.
  pose proof (gz_limit_restored_spec (c_append c) m ll (ll + cl) [] b recs2 st1 fl1 (Nat.le_add_r ll cl) Hf P1 Hr') as R. cbn [app] in R.
  destruct (simg_st (c_append c) m ll (ll + cl) st1 fl1 (b :: recs2)) as [[st2 e2] fl2].
  destruct R as [-> [_ [[L1 L2] (pl & ar & idx & d & ->)]]]. destruct Fr as [V [He _]].
  exists pl, ar, d. split; [exact V|]. split; [exact L1|]. split; [exact L2|]. rewrite He, app_nil_r. reflexivity.
Qed.
Print Assumptions gz_limit_restored.

(* ------------------------------------------------------------------ the statement, computed on examples *)
Import String.StringSyntax.
Open Scope string_scope.
Definition gx_cfg (app : bool) (m : N) (k : cleanup) : config :=
  {| c_spec := {| fbase := bs "app"; fdisc := None; fts := false; fsfx := Some (bs "log") |};
     c_append := app; c_cap := None; c_rot := Some (CSize m, NNumbers, k); c_utc := false;
     c_symlink := false; c_bg := false; c_async := false; c_start := None |}.
Lemma gx_numkcfg app m k : numkcfg (gx_cfg app m k) (CSize m) k /\ c_cap (gx_cfg app m k) = None /\ sfx_ok (c_spec (gx_cfg app m k)).
Proof. repeat split. Qed.

Definition gx_run (app : bool) (m : N) (k : cleanup) (fl : list bool) (recs : list bytes)
  : list (bytes * N * bytes) * list ecode * list bool * bool :=
  let r := run (fsys 0 0 fl) (OStart (gx_cfg app m k) :: List.map OWrite recs) in
  (snap_of (fst r), werrs (s_w (fst r)), wfaults (s_w (fst r)), forallb obs_normalb (snd r)).
(* the specification, as a directory sorted by name: plain files (kind 0), complete archives (kind 1) *)
Fixpoint ins_ent (x : bytes * N * bytes) (l : list (bytes * N * bytes)) : list (bytes * N * bytes) :=
  match l with [] => [x] | y :: r => if lex_le (fst (fst x)) (fst (fst y)) then x :: l else y :: ins_ent x r end.
Definition gx_sim (app : bool) (m : N) (k : cleanup) (fl : list bool) (recs : list bytes)
  : list (bytes * N * bytes) * list ecode * list bool * bool :=
  let '(ll, cl) := match klim k with Some p => p | None => (O, O) end in
  let '(pl, ar, ocur, e, rest) := simg app m ll (ll + cl) fl recs in
  (fold_right ins_ent [] (List.map (fun p => (rname (gx_cfg app m k) (fst p), 0%N, snd p)) pl
                          ++ List.map (fun p => (gname (gx_cfg app m k) (fst p), 1%N, snd p)) ar
                          ++ match ocur with Some d => [(cname (gx_cfg app m k), 0%N, d)] | None => [] end), e, rest, true).

Definition g0 := bs "app_r00000.log.gz".
Definition g1 := bs "app_r00001.log.gz".

(* size limit 3, KeepCompressedFiles 1, no append.  The first rotation compresses r00000: the fallible calls of the second
   record are  rename, create, [cleanup:] read_dir, [compress:] create .gz, open, copy, finish, remove, [then] write *)
Example gx_none : gx_run false 3 (KGz 1) [] (firstn 2 recs8) = ([(g0, 1%N, bs "abcd"); (rC, 0%N, bs "efgh")], [], [], true)
               /\ gx_sim false 3 (KGz 1) [] (firstn 2 recs8) = gx_run false 3 (KGz 1) [] (firstn 2 recs8).
Proof. split; vm_compute; reflexivity. Qed.
(* the creation of the archive fails: nothing has changed, reported (ELogFile), the record is written *)
Example gx_gz_create_fails :
  gx_run false 3 (KGz 1) [F;F;F;F;F; F;F;F; T] (firstn 2 recs8) = ([(r0, 0%N, bs "abcd"); (rC, 0%N, bs "efgh")], [ELogFile], [], true)
  /\ gx_sim false 3 (KGz 1) [F;F;F;F;F; F;F;F; T] (firstn 2 recs8) = gx_run false 3 (KGz 1) [F;F;F;F;F; F;F;F; T] (firstn 2 recs8).
Proof. split; vm_compute; reflexivity. Qed.
(* the open of the original fails: an EMPTY complete archive stays next to the original *)
Example gx_gz_open_fails :
  gx_run false 3 (KGz 1) [F;F;F;F;F; F;F;F; F;T] (firstn 2 recs8)
  = ([(r0, 0%N, bs "abcd"); (g0, 1%N, []); (rC, 0%N, bs "efgh")], [ELogFile], [], true)
  /\ gx_sim false 3 (KGz 1) [F;F;F;F;F; F;F;F; F;T] (firstn 2 recs8) = gx_run false 3 (KGz 1) [F;F;F;F;F; F;F;F; F;T] (firstn 2 recs8).
Proof. split; vm_compute; reflexivity. Qed.
(* the removal of the original fails: the full archive stays next to the original; nothing is lost ... *)
Example gx_gz_remove_fails :
  gx_run false 3 (KGz 1) [F;F;F;F;F; F;F;F; F;F;F;F;T] (firstn 2 recs8)
  = ([(r0, 0%N, bs "abcd"); (g0, 1%N, bs "abcd"); (rC, 0%N, bs "efgh")], [ELogFile], [], true)
  /\ gx_sim false 3 (KGz 1) [F;F;F;F;F; F;F;F; F;F;F;F;T] (firstn 2 recs8) = gx_run false 3 (KGz 1) [F;F;F;F;F; F;F;F; F;F;F;F;T] (firstn 2 recs8)
  /\ simg false 3 0 1 [F;F;F;F;F; F;F;F; F;F;F;F;T] (firstn 2 recs8) = ([(0%nat, bs "abcd")], [(0%nat, bs "abcd")], Some (bs "efgh"), [ELogFile], []).
Proof. split; [vm_compute; reflexivity|]. split; vm_compute; reflexivity. Qed.
(* ... and the next cleanup (oracle used up) removes the redundant archive, compresses r00001 (the newest plain file comes
   first in the listing) and removes r00000: the limit holds again *)
Example gx_gz_limit_restored :
  gx_run false 3 (KGz 1) [F;F;F;F;F; F;F;F; F;F;F;F;T] (firstn 3 recs8) = ([(g1, 1%N, bs "efgh"); (rC, 0%N, bs "ijkl")], [ELogFile], [], true)
  /\ gx_sim false 3 (KGz 1) [F;F;F;F;F; F;F;F; F;F;F;F;T] (firstn 3 recs8) = gx_run false 3 (KGz 1) [F;F;F;F;F; F;F;F; F;F;F;F;T] (firstn 3 recs8).
Proof. split; vm_compute; reflexivity. Qed.
Example gx_gz_limit_restored_hyps :
  let '(st1, e1, fl1) := simg_st false 3 0 1 (GInit [] [] false) [F;F;F;F;F; F;F;F; F;F;F;F;T] (firstn 2 recs8) in
  fl1 = [] /\ grotates 3 st1 = true /\ e1 = [ELogFile].
Proof. vm_compute. repeat split. Qed.
(* AT THE INITIALISATION a failure inside the cleanup loses the record, as with KeepLogFiles *)
Example gx_init_cleanup_fails_loses_record :
  gx_run false 3 (KGz 1) [F;F;F;T] [bs "abcd"] = ([(rC, 0%N, [])], [EWrite], [], true)
  /\ gx_sim false 3 (KGz 1) [F;F;F;T] [bs "abcd"] = gx_run false 3 (KGz 1) [F;F;F;T] [bs "abcd"].
Proof. split; vm_compute; reflexivity. Qed.

(* run and specification give the same directory, error channel, rest of the oracle, and every call returns normally *)
Definition gagree (app : bool) (m : N) (k : cleanup) (recs : list bytes) (fl : list bool) : bool :=
  let '(d1, e1, f1, ok1) := gx_run app m k fl recs in
  let '(d2, e2, f2, ok2) := gx_sim app m k fl recs in
  leqb ent_eqb d1 d2 && leqb ec_eqb e1 e2 && leqb Bool.eqb f1 f2 && Bool.eqb ok1 ok2.
Lemma ins_ent_names x l :
  List.map (fun e : bytes * N * bytes => fst (fst e)) (ins_ent x l) = insert_name (fst (fst x)) (List.map (fun e => fst (fst e)) l).
Proof.
  induction l as [|y l IH]; cbn [ins_ent insert_name List.map]; [reflexivity|].
  destruct (lex_le (fst (fst x)) (fst (fst y))); cbn [List.map]; [reflexivity | rewrite IH; reflexivity].
Qed.
Lemma ins_ent_in x l e : In e (ins_ent x l) <-> e = x \/ In e l.
Proof.
  induction l as [|y l IH]; cbn [ins_ent]; [cbn [In]; intuition congruence|].
  destruct (lex_le (fst (fst x)) (fst (fst y))); cbn [In]; [intuition congruence | rewrite IH; intuition congruence].
Qed.
Lemma sorted_ent_names l : List.map (fun e => fst (fst e)) (fold_right ins_ent [] l) = sort_names (List.map (fun e => fst (fst e)) l).
Proof. induction l as [|x l IH]; cbn [fold_right List.map sort_names]; [reflexivity|]. rewrite ins_ent_names, IH. reflexivity. Qed.
Lemma sorted_ent_in l e : In e (fold_right ins_ent [] l) <-> In e l.
Proof. induction l as [|x l IH]; cbn [fold_right In]; [tauto|]. rewrite ins_ent_in, IH. intuition congruence. Qed.

(* the directory part of gx_sim is the snapshot of a directory that hview describes: its names are sorted by construction
   and pairwise different *)
Lemma hview_snap c f pl ar ocur : hview c f pl ar ocur -> nodup_names f ->
  snap_list f = fold_right ins_ent [] (List.map (fun p => (rname c (fst p), 0%N, snd p)) pl
                                       ++ List.map (fun p => (gname c (fst p), 1%N, snd p)) ar
                                       ++ match ocur with Some d => [(cname c, 0%N, d)] | None => [] end).
Proof.
  intros (W & Ap & Aa & Hp & Ha & Hc & Ho) Nd. apply SnapFacts.snap_list_exact; [exact Nd | | |].
  - unfold SnapFacts.ent_name. rewrite sorted_ent_names. apply SnapFacts.sorted_nodup_ascending; [apply sort_names_sorted|].
    apply sort_names_nodup. rewrite !map_app, !map_map. cbn [fst]. apply nodup_app_disjoint; [|apply nodup_app_disjoint|].
    + rewrite <- (map_map fst (rname c)). apply FinFun.Injective_map_NoDup; [intros i j; apply rname_inj | apply asc_nodup; exact Ap].
    + rewrite <- (map_map fst (gname c)). apply FinFun.Injective_map_NoDup; [intros i j; apply gname_inj | apply asc_nodup; exact Aa].
    + destruct ocur; repeat constructor. intros [].
    + intros nm Hn Hc'. destruct ocur; [|destruct Hc']. destruct Hc' as [<-|[]].
      apply in_map_iff in Hn. destruct Hn as [p [E _]]. exact (gname_not_cname _ _ E).
    + intros nm Hn Hn'. apply in_map_iff in Hn. destruct Hn as [p [<- _]]. apply in_app_or in Hn'. destruct Hn' as [Hn'|Hn'].
      * apply in_map_iff in Hn'. destruct Hn' as [p' [E _]]. exact (gname_ne_rname _ _ _ E).
      * destruct ocur; [|destruct Hn']. destruct Hn' as [E|[]]. symmetry in E. exact (rname_not_cname _ _ E).
  - intros a Ia. rewrite sorted_ent_in in Ia. apply in_app_or in Ia. destruct Ia as [Ia|Ia]; [|apply in_app_or in Ia; destruct Ia as [Ia|Ia]].
    + apply in_map_iff in Ia. destruct Ia as [[i e] [<- Hi]]. destruct (Hp i e Hi) as (j & Lj & Pj & Cj). cbn [SnapFacts.ent_name fst snd].
      split; [apply NumListing.dir_names_lookup; eauto|]. rewrite (SnapFacts.snap_entry_plain f _ j Lj Pj), Cj. reflexivity.
    + apply in_map_iff in Ia. destruct Ia as [[i e] [<- Hi]]. destruct (Ha i e Hi) as (j & Lj & Dj & Gj & Fj). cbn [SnapFacts.ent_name fst snd].
      split; [apply NumListing.dir_names_lookup; eauto|]. unfold snap_entry, file_of. rewrite Lj, Fj, Gj, Dj. reflexivity.
    + destruct ocur as [d|]; [|destruct Ia]. destruct Ia as [<-|[]]. destruct Hc as (j & Lj & Pj & Cj). cbn [SnapFacts.ent_name fst].
      split; [apply NumListing.dir_names_lookup; eauto|]. rewrite (SnapFacts.snap_entry_plain f _ j Lj Pj), Cj. reflexivity.
  - intros nm j Lj. unfold SnapFacts.ent_name. rewrite sorted_ent_names, sort_names_in', !map_app, !map_map. cbn [fst]. apply in_or_app.
    destruct (Ho nm j Lj) as [->|[(i & d & Hi & ->)|(i & d & Hi & ->)]].
    + right. apply in_or_app. right. destruct ocur as [d|]; [left; reflexivity | congruence].
    + left. apply in_map_iff. exists (i, d). split; [reflexivity | exact Hi].
    + right. apply in_or_app. left. apply in_map_iff. exists (i, d). split; [reflexivity | exact Hi].
Qed.

(* run and specification agree on every oracle: this is faults_rotation_gz_st *)
Theorem gagree_run app m k ll cl recs fl :
  klim k = Some (ll, cl) -> (N.of_nat (length recs) <= u32_max)%N -> gagree app m k recs fl = true.
Proof.
  intros Hk HB. destruct (gx_numkcfg app m k) as (Hcfg & Hcap & Hsfx).
  pose proof (faults_rotation_gz_st (gx_cfg app m k) m k ll cl 0 0 fl recs Hcfg Hk Hcap Hsfx HB) as R. cbv zeta in R.
  unfold gagree, gx_run, gx_sim, simg. rewrite Hk. change (c_append (gx_cfg app m k)) with app in R.
  destruct (simg_st app m ll (ll + cl) (GInit [] [] false) fl recs) as [[st e] rest]. destruct R as (V & Nd & He & Hf & O).
  rewrite snap_of_list, (hview_snap _ _ _ _ _ V Nd), He, Hf, (obs_normalb_all _ (proj1 (Forall_forall _ _) O)).
  rewrite (leqb_refl ent_eqb ent_eqb_refl), (leqb_refl ec_eqb ec_eqb_refl), (leqb_refl Bool.eqb Bool.eqb_reflx). reflexivity.
Qed.
Lemma gagree_all app m k ll cl recs fls :
  klim k = Some (ll, cl) -> (N.of_nat (length recs) <= u32_max)%N -> forallb (gagree app m k recs) fls = true.
Proof. intros Hk HB. apply forallb_forall. intros fl _. exact (gagree_run app m k ll cl recs fl Hk HB). Qed.
Lemma gagree_shifted app m k ll cl recs ss l :
  klim k = Some (ll, cl) -> (N.of_nat (length recs) <= u32_max)%N ->
  forallb (fun s => forallb (gagree app m k recs) (shifted s l)) ss = true.
Proof. intros Hk HB. apply forallb_forall. intros s _. exact (gagree_all app m k ll cl recs _ Hk HB). Qed.

(* instances of gagree_run *)
Example gx_agree_all :
  forallb (gagree false 3 (KGz 1) recs8) (all_lists 8) = true
  /\ forallb (gagree true 3 (KLogGz 1 1) recs8) (all_lists 8) = true
  /\ forallb (gagree false 3 (KLog 1) recs8) (all_lists 8) = true.
Proof.
  assert (B8 : (N.of_nat (length recs8) <= u32_max)%N) by (vm_compute; discriminate).
  split; [|split]; (eapply gagree_all; [reflexivity | exact B8]).
Qed.
Example gx_agree_shifted :
  forallb (fun s => forallb (gagree false 3 (KGz 1) recs8) (shifted s 8)) [8; 12; 16]%nat = true
  /\ forallb (fun s => forallb (gagree false 3 (KLogGz 1 1) recs8) (shifted s 8)) [12; 16; 20]%nat = true
  /\ forallb (fun s => forallb (gagree true 3 (KGz 2) recs8) (shifted s 8)) [12; 16]%nat = true.
Proof.
  assert (B8 : (N.of_nat (length recs8) <= u32_max)%N) by (vm_compute; discriminate).
  split; [|split]; (eapply gagree_shifted; [reflexivity | exact B8]).
Qed.
