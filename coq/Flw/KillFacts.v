(* The kill counter.  (1) Worlds with a budget: how each primitive consumes it.  (2) mount_next, write_buffer and
   initialize as equations in named parts (mount_tail, naming_step, wb_tail, wb_active).  (3) A dead process (kill
   point reached) leaves the file system alone, whatever its configuration and state, in every basic operation. *)
Require Import FL.Base.Bytes FL.Base.PathName FL.Fs.Fs FL.Fs.FsFacts FL.Time.TsFormat
  FL.Names.FileSpec FL.Flw.Model FL.Flw.ModelFacts FL.Flw.Run.
Require Export FL.Flw.QuietFacts.
Open Scope nat_scope.

(* ------------------------------------------------------------------ worlds with a budget *)
(* kw q k: the quiet world q with the kill counter at k.  k = S n: n further effects happen.  k = 0: dead. *)
Definition kw (q : world) (k : nat) : world := set_kill q (Some k).

Lemma world_kw w k : wkill w = Some k -> w = kw (set_kill w None) k.
Proof. destruct w; cbn. intros ->. reflexivity. Qed.

(* only `effect` consumes the counter; `tick` (the fault oracle) does not *)
Definition eff (q : world) (k : nat) (g : fs -> fs) : world :=
  match k with
  | 0 | 1 => kw q 0
  | S (S k') => kw (set_fs q (g (wfs q))) (S k')
  end.

Lemma effect_kw q k g : effect (kw q k) g = eff q k g.
Proof. destruct k as [|[|k]]; reflexivity. Qed.

Lemma tick_kw q k : quiet q -> tick (kw q k) = (false, kw q k).
Proof. intros [F _]. unfold tick. cbn [kw set_kill wfaults]. rewrite F. reflexivity. Qed.

Lemma p_write_kw q k i b : quiet q ->
  p_write (kw q k) i b = (true, match b with [] => kw q k | _ => eff q k (fun f => append_ino f i b) end).
Proof.
  intros Q. unfold p_write. destruct b as [|x b]; [reflexivity|]. rewrite tick_kw by assumption. rewrite effect_kw. reflexivity.
Qed.

Lemma p_rename_kw q k a b : quiet q ->
  p_rename (kw q k) a b =
  match rename (wfs q) a b with
  | Some _ => (ROk, eff q k (fun f => match rename f a b with Some f' => f' | None => f end))
  | None => (RNotFound, kw q k)
  end.
Proof.
  intros Q. unfold p_rename. rewrite tick_kw by assumption. cbn [kw set_kill wfs].
  destruct (rename (wfs q) a b); [|reflexivity]. rewrite effect_kw. reflexivity.
Qed.

Lemma p_open_kw q k name append : quiet q ->
  p_open (kw q k) name append =
  if match file_of (wfs q) name with Some fl => fdir fl | None => false end then (None, kw q k)
  else (Some (snd (if append then open_append (wfs q) name (wnow q) else open_trunc (wfs q) name 0%N (wnow q))),
        eff q k (fun f => fst (if append then open_append f name (wnow q) else open_trunc f name 0%N (wnow q)))).
Proof.
  intros Q. unfold p_open. rewrite tick_kw by assumption. cbn [kw set_kill wfs wnow].
  destruct (match file_of (wfs q) name with Some fl => fdir fl | None => false end); [reflexivity|].
  rewrite effect_kw. reflexivity.
Qed.

Lemma p_remove_kw q k a : quiet q ->
  p_remove (kw q k) a = match lookup (wfs q) a with
                        | Some _ => (true, eff q k (fun f => unlink f a))
                        | None => (false, kw q k) end.
Proof.
  intros Q. unfold p_remove. rewrite tick_kw by exact Q. change (wfs (kw q k)) with (wfs q).
  destruct (lookup (wfs q) a); [|reflexivity]. rewrite effect_kw. reflexivity.
Qed.

(* the outcome of an effect depends only on the file system it produces *)
Definition eff_fs (q : world) (k : nat) (f' : fs) : world :=
  match k with
  | 0 | 1 => kw q 0
  | S (S k') => kw (set_fs q f') (S k')
  end.

Lemma eff_eq q k g : eff q k g = eff_fs q k (g (wfs q)).
Proof. destruct k as [|[|k]]; reflexivity. Qed.

Lemma wfs_kw q k : wfs (kw q k) = wfs q.
Proof. reflexivity. Qed.
Lemma name_of_kw c q k o : name_of c (kw q k) o = name_of c q o.
Proof. unfold name_of, fixed_of, starttxt, local_civil. cbn [kw set_kill woff wnow]. reflexivity. Qed.

Lemma rot_nec_kw q k roll : rotation_necessary (kw q k) roll = rotation_necessary q roll.
Proof. unfold rotation_necessary, age_rotation_necessary, local_civil. cbn [kw set_kill woff wnow]. reflexivity. Qed.
Lemma reset_kw q k roll path : reset_size_and_date (kw q k) roll path = reset_size_and_date q roll path.
Proof. unfold reset_size_and_date, birth_or_now. cbn [kw set_kill wfs wnow]. reflexivity. Qed.

Lemma w_flush_nop w wr : wpend wr = [] -> w_flush w wr = (true, w, {| wino := wino wr; wpend := []; wcap := wcap wr |}).
Proof. intros P. unfold w_flush. rewrite P. reflexivity. Qed.
Lemma w_drop_nop w wr : wpend wr = [] -> w_drop w wr = w.
Proof. intros P. unfold w_drop. rewrite w_flush_nop by assumption. reflexivity. Qed.

Lemma w_write_kw q k wr b : quiet q -> wcap wr = None ->
  w_write (kw q k) wr b = (true, match b with [] => kw q k | _ => eff_fs q k (append_ino (wfs q) (wino wr) b) end, wr).
Proof. intros Q C. unfold w_write. rewrite C, p_write_kw by exact Q. destruct b; [|rewrite eff_eq]; reflexivity. Qed.

Lemma open_log_file_fresh_kw c q k o : quiet q -> c_symlink c = false -> lookup (wfs q) (name_of c q o) = None ->
  open_log_file c (kw q k) o
  = (Ok ({| wino := length (inodes (wfs q)); wpend := []; wcap := c_cap c |}, name_of c q o),
     eff_fs q k (fst (create_file (wfs q) (name_of c q o) 0%N (wnow q)))).
Proof.
  intros Q Hl L. unfold open_log_file, do_symlink. rewrite Hl, name_of_kw, p_open_kw by exact Q.
  rewrite (file_of_missing _ _ L), eff_eq.
  destruct (c_append c); rewrite ?open_append_fresh, ?open_trunc_fresh by exact L; reflexivity.
Qed.

Lemma roll_new_kw q k crit append path fl : quiet q -> file_of (wfs q) path = Some fl ->
  roll_new (kw q k) crit append path = (Ok (roll_of crit (if append then N.of_nat (length (fdata fl)) else 0%N) (fborn fl)), kw q k).
Proof.
  intros Q F. unfold roll_new, birth_or_now. destruct append.
  - rewrite tick_kw, wfs_kw, F by assumption. rewrite wfs_kw, F. destruct crit; reflexivity.
  - rewrite wfs_kw, F. destruct crit; reflexivity.
Qed.

(* what a rotation does once the naming step has given the infix r in world w1, with the naming state ns1 *)
Definition mount_tail (c : config) (w1 : world) (rs : rot_state) (wr : writer) (path : bytes) (ns1 : naming_state) (r : res bytes)
  : res unit * world * inner :=
  let with_ns ns := Active (Some {| rs_naming := ns; rs_roll := rs_roll rs; rs_cleanup := rs_cleanup rs; rs_bg := rs_bg rs |}) wr path in
  match r with
  | Ok infix =>
    match open_log_file c w1 (Some infix) with
    | (Ok (wr', path'), w2) =>
      let '(okf, w2a, wra) := w_flush w2 wr in
      let w2b := if okf then w2a else report EFlush w2a in
      let w3 := w_drop w2b wra in
      let roll' := reset_size_and_date w3 (rs_roll rs) path' in
      let '(rc, w4) := cleanup_or_queue c w3 (rs_bg rs) (rs_cleanup rs) (ns_filter ns1) (if ns_writes_direct ns1 then Some path' else None) in
      let st' := Active (Some {| rs_naming := ns1; rs_roll := roll'; rs_cleanup := rs_cleanup rs; rs_bg := rs_bg rs |}) wr' path' in
      (match rc with Ok _ => Ok tt | Err => Err | Panic => Panic end, w4, st')
    | (Err, w2) => (Err, w2, with_ns ns1)
    | (Panic, w2) => (Panic, w2, with_ns ns1)
    end
  | Err => (Err, w1, with_ns ns1)
  | Panic => (Panic, w1, with_ns ns1)
  end.

Definition naming_step (c : config) (w : world) (ns : naming_state) : res bytes * world * naming_state :=
  match ns with
  | NSTs ts (Some cur) fmt =>
    match creation_ts_of_current c w cur true (Some ts) fmt with
    | (Ok ts', w') => (Ok cur, w', NSTs ts' (Some cur) fmt)
    | (Err, w') => (Err, w', ns)
    | (Panic, w') => (Panic, w', ns)
    end
  | NSTs _ None fmt =>
    match collision_free c w (infix_from_ts c w fmt (wnow w)) with
    | (Ok i, w') => (Ok i, w', NSTs (wnow w) None fmt)
    | (Err, w') => (Err, w', NSTs (wnow w) None fmt)
    | (Panic, w') => (Panic, w', NSTs (wnow w) None fmt)
    end
  | NSNumR idx =>
    match index_for_rcurrent c w (Some idx) true with
    | (Ok idx', w') => (Ok cur_infix, w', NSNumR idx')
    | (Err, w') => (Err, w', NSNumR idx)
    | (Panic, w') => (Panic, w', NSNumR idx)
    end
  | NSNumD idx => (Ok (number_infix (idx + 1)), w, NSNumD (idx + 1))
  end.

Lemma mount_next_eq c w rs wr path force : force || rotation_necessary w (rs_roll rs) = true ->
  mount_next c w (Active (Some rs) wr path) force
  = let '(r, w1, ns1) := naming_step c w (rs_naming rs) in mount_tail c w1 rs wr path ns1 r.
Proof. intros H. unfold mount_next. rewrite H. unfold naming_step. destruct (rs_naming rs) as [ts [cur|] fmt|idx|idx]; reflexivity. Qed.

Lemma mount_tail_open c w1 rs wr path ns1 infix wr' path' w2 :
  open_log_file c w1 (Some infix) = (Ok (wr', path'), w2) -> wpend wr = [] ->
  mount_tail c w1 rs wr path ns1 (Ok infix)
  = let '(rc, w4) := cleanup_or_queue c w2 (rs_bg rs) (rs_cleanup rs) (ns_filter ns1) (if ns_writes_direct ns1 then Some path' else None) in
    (match rc with Ok _ => Ok tt | Err => Err | Panic => Panic end, w4,
     Active (Some {| rs_naming := ns1; rs_roll := reset_size_and_date w2 (rs_roll rs) path'; rs_cleanup := rs_cleanup rs; rs_bg := rs_bg rs |}) wr' path').
Proof.
  intros E P. unfold mount_tail. rewrite E, (w_flush_nop w2 wr P). cbv beta iota zeta. rewrite w_drop_nop by reflexivity. reflexivity.
Qed.

Lemma mount_next_create_kw c q rs wr path force j infix ns1 :
  c_symlink c = false -> quiet q -> wpend wr = [] ->
  force || rotation_necessary q (rs_roll rs) = true ->
  naming_step c (kw q j) (rs_naming rs) = (Ok infix, kw q j, ns1) ->
  lookup (wfs q) (name_of c q (Some infix)) = None ->
  mount_next c (kw q j) (Active (Some rs) wr path) force =
  let p' := name_of c q (Some infix) in
  let w2 := eff_fs q j (fst (create_file (wfs q) p' 0%N (wnow q))) in
  let '(rc, w4) := cleanup_or_queue c w2 (rs_bg rs) (rs_cleanup rs) (ns_filter ns1) (if ns_writes_direct ns1 then Some p' else None) in
  (match rc with Ok _ => Ok tt | Err => Err | Panic => Panic end, w4,
   Active (Some {| rs_naming := ns1; rs_roll := reset_size_and_date w2 (rs_roll rs) p'; rs_cleanup := rs_cleanup rs; rs_bg := rs_bg rs |})
          {| wino := length (inodes (wfs q)); wpend := []; wcap := c_cap c |} p').
Proof.
  intros Hlink Q P Hnec En L.
  rewrite mount_next_eq by (rewrite rot_nec_kw; exact Hnec). rewrite En.
  exact (mount_tail_open c _ rs wr _ _ _ _ _ _ (open_log_file_fresh_kw c q j (Some infix) Q Hlink L) P).
Qed.

Lemma naming_step_numr_kw c q k idx f1 : quiet q ->
  rename (wfs q) (name_of c q (Some cur_infix)) (name_of c q (Some (number_infix idx))) = Some f1 ->
  naming_step c (kw q k) (NSNumR idx) = (Ok cur_infix, eff_fs q k f1, NSNumR (idx + 1)).
Proof.
  intros Q E. unfold naming_step, index_for_rcurrent. rewrite !name_of_kw, p_rename_kw, E, eff_eq, E by exact Q. reflexivity.
Qed.

Definition wb_tail (s : flw) (b : bytes) (r1 : res unit) (w1 : world) (st1 : inner) (rotating : bool) : res unit * world * flw * bool :=
  match r1 with
  | Panic => (Panic, w1, poison (with_inner s st1), rotating)
  | _ =>
    let w2 := match r1 with Err => report ELogFile w1 | _ => w1 end in
    match st1 with
    | Active o_rot wr path =>
      let '(ok, w3, wr') := w_write w2 wr b in
      if ok then
        let o_rot' := match o_rot with
                      | Some rs => Some {| rs_naming := rs_naming rs; rs_roll := increase_size (rs_roll rs) (N.of_nat (length b));
                                           rs_cleanup := rs_cleanup rs; rs_bg := rs_bg rs |}
                      | None => None end in
        (Ok tt, w3, with_inner s (Active o_rot' wr' path), rotating)
      else (Err, w3, with_inner s (Active o_rot wr' path), rotating)
    | Initial => (Ok tt, w2, with_inner s st1, rotating)
    end
  end.

Definition wb_active (s : flw) (b : bytes) (w0 : world) (st0 : inner) : res unit * world * flw * bool :=
  let '(r1, w1, st1) := mount_next (f_cfg s) w0 st0 false in
  wb_tail s b r1 w1 st1 (match st0 with Active (Some rs) _ _ => rotation_necessary w0 (rs_roll rs) | _ => false end).

Lemma write_buffer_eq s w b :
  write_buffer s w b =
  match f_inner s with
  | Initial => match initialize (f_cfg s) w with
               | (Ok i, w') => wb_active s b w' i
               | (Err, w') => (Err, w', with_inner s Initial, false)
               | (Panic, w') => (Panic, w', poison (with_inner s Initial), false)
               end
  | i => wb_active s b w i
  end.
Proof.
  unfold write_buffer, wb_active, wb_tail. destruct (f_inner s) as [|o wr p]; [|reflexivity].
  destruct (initialize (f_cfg s) w) as [[i| |] w']; reflexivity.
Qed.

Lemma initialize_steps c w crit nam k ns infix w1 wr path w2 roll w3 w4 :
  c_rot c = Some (crit, nam, k) ->
  init_naming c w nam = (Ok (ns, infix), w1) ->
  open_log_file c w1 (Some infix) = (Ok (wr, path), w2) ->
  roll_new w2 crit (c_append c) path = (Ok roll, w3) ->
  match k with KNever => (Ok tt, w3) | _ => cleanup_impl c w3 k (ns_filter ns) (if naming_writes_direct nam then Some path else None) end
    = (Ok tt, w4) ->
  initialize c w
  = (Ok (Active (Some {| rs_naming := ns; rs_roll := roll; rs_cleanup := k; rs_bg := match k with KNever => false | _ => c_bg c end |}) wr path),
     if match k with KNever => false | _ => c_bg c end then set_acts w4 0 else w4).
Proof. intros Hr E1 E2 E3 E4. unfold initialize. rewrite Hr, E1. cbn [bind]. rewrite E2. cbn [bind]. rewrite E3. cbn [bind]. rewrite E4. reflexivity. Qed.

(* ------------------------------------------------------------------ the dead process *)
Definition dead (w : world) : Prop := wkill w = Some 0 /\ wfaults w = [].
(* w' is dead and has the file system of w *)
Definition frozen (w w' : world) : Prop := dead w' /\ wfs w' = wfs w.

Lemma frozen_refl w : dead w -> frozen w w.
Proof. intros H. split; [exact H | reflexivity]. Qed.
Lemma frozen_trans a b c : frozen a b -> frozen b c -> frozen a c.
Proof. intros [_ F1] [D2 F2]. split; [exact D2 | congruence]. Qed.

Lemma dead_kw q : quiet q -> dead (kw q 0).
Proof. intros [F _]. split; [reflexivity | exact F]. Qed.

Lemma tick_dead w : dead w -> tick w = (false, w).
Proof. intros [_ F]. unfold tick. rewrite F. reflexivity. Qed.
Lemma effect_dead w g : dead w -> effect w g = w.
Proof. intros [K _]. destruct w; cbn in *. subst. reflexivity. Qed.
Lemma effect_link_dead w l : dead w -> effect_link w l = w.
Proof. intros [K _]. destruct w; cbn in *. subst. reflexivity. Qed.
Lemma report_dead e w : dead w -> report e w = w.
Proof. intros [K _]. unfold report. rewrite K. reflexivity. Qed.
Lemma report_write_dead {A} (r : res A) w : dead w -> match r with Err => report EWrite w | _ => w end = w.
Proof. intros H. destruct r; try reflexivity. exact (report_dead EWrite w H). Qed.
Lemma dead_set_acts w n : dead w -> dead (set_acts w n).
Proof. intros H. exact H. Qed.
Lemma dead_set_now w t : dead w -> dead (set_now w t).
Proof. intros H. exact H. Qed.

Lemma p_rename_dead w a b : dead w -> exists r, p_rename w a b = (r, w).
Proof.
  intros H. unfold p_rename. rewrite tick_dead by assumption. destruct (rename (wfs w) a b); [|eauto].
  rewrite effect_dead by assumption. eauto.
Qed.
Lemma p_remove_dead w a : dead w -> exists r, p_remove w a = (r, w).
Proof.
  intros H. unfold p_remove. rewrite tick_dead by assumption. destruct (lookup (wfs w) a); [|eauto].
  rewrite effect_dead by assumption. eauto.
Qed.
Lemma p_open_dead w n a : dead w -> exists r, p_open w n a = (r, w).
Proof.
  intros H. unfold p_open. rewrite tick_dead by assumption.
  destruct (match file_of (wfs w) n with Some fl => fdir fl | None => false end); [eauto|].
  rewrite effect_dead by assumption. eauto.
Qed.
Lemma p_write_dead w i b : dead w -> p_write w i b = (true, w).
Proof.
  intros H. unfold p_write. destruct b; [reflexivity|]. rewrite tick_dead by assumption.
  rewrite effect_dead by assumption. reflexivity.
Qed.

Lemma w_flush_dead w wr : dead w -> exists wr', w_flush w wr = (true, w, wr').
Proof. intros H. unfold w_flush. rewrite p_write_dead by assumption. eauto. Qed.
Lemma w_drop_dead w wr : dead w -> w_drop w wr = w.
Proof. intros H. unfold w_drop. destruct (w_flush_dead w wr H) as [wr' E]. rewrite E. reflexivity. Qed.
Lemma w_write_dead w wr b : dead w -> exists wr', w_write w wr b = (true, w, wr').
Proof.
  intros H. unfold w_write. destruct (wcap wr) as [c|].
  - destruct (Nat.ltb (length b) (c - length (wpend wr))); [eauto|].
    destruct (Nat.ltb (c - length (wpend wr)) (length b)).
    + destruct (w_flush_dead w wr H) as [wr' E]. rewrite E.
      destruct (Nat.leb c (length b)); [rewrite p_write_dead by assumption|]; eauto.
    + destruct (Nat.leb c (length b)); [rewrite p_write_dead by assumption|]; eauto.
  - rewrite p_write_dead by assumption. eauto.
Qed.

Lemma do_symlink_dead c w t : dead w -> do_symlink c w t = w.
Proof.
  intros H. unfold do_symlink. destruct (c_symlink c); [|reflexivity].
  destruct (wlink w) eqn:L.
  - rewrite effect_link_dead by assumption. rewrite L. apply report_dead. assumption.
  - rewrite L. apply effect_link_dead. assumption.
Qed.
Lemma open_log_file_dead c w o : dead w -> exists r, open_log_file c w o = (r, w).
Proof.
  intros H. unfold open_log_file. rewrite do_symlink_dead by assumption.
  destruct (p_open_dead w (name_of c w o) (c_append c) H) as [r E]. rewrite E. destruct r; eauto.
Qed.

Lemma compress_file_dead w n : dead w -> exists r, compress_file w n = (r, w).
Proof.
  intros H. unfold compress_file.
  repeat (rewrite ?(tick_dead w H); rewrite ?(effect_dead w _ H)).
  destruct (match file_of (wfs w) (gz_name n) with Some fl => fdir fl | None => false end); [eauto|].
  repeat (rewrite ?(tick_dead w H); rewrite ?(effect_dead w _ H)).
  destruct (lookup (wfs w) n); [|eauto].
  repeat (progress (rewrite ?(tick_dead w H); rewrite ?(effect_dead w _ H))).
  apply p_remove_dead. assumption.
Qed.

Lemma cleanup_loop_dead w : dead w -> forall files index ll total cur, exists r, cleanup_loop w files index ll total cur = (r, w).
Proof.
  intros H. induction files as [|n r IH]; intros index ll total cur; cbn [cleanup_loop]; [eauto|].
  destruct (match cur with Some p => beq p n | None => false end); [apply IH|].
  destruct (Nat.leb total index).
  - destruct (p_remove_dead w n H) as [ok E]. rewrite E. destruct ok; [apply IH | eauto].
  - destruct (Nat.leb ll index); [|apply IH].
    destruct (compress_file_dead w n H) as [ok E].
    destruct (extension n) as [e|].
    + destruct (beq e gz_sfx); [apply IH|]. rewrite E. destruct ok; [apply IH | eauto].
    + rewrite E. destruct ok; [apply IH | eauto].
Qed.

Lemma remove_redundant_dead w : dead w -> forall red files, exists ok fl, remove_redundant w red files = (ok, w, fl).
Proof.
  intros H. induction red as [|n r IH]; intros files; cbn [remove_redundant]; [eauto|].
  destruct (p_remove_dead w n H) as [ok E]. rewrite E. destruct ok; [apply IH | eauto].
Qed.

Lemma cleanup_impl_dead c w k flt d : dead w -> exists r, cleanup_impl c w k flt d = (r, w).
Proof.
  intros H. unfold cleanup_impl.
  assert (X : forall ll cl, exists r,
    (let ll := if match d with Some _ => true | None => false end && Nat.eqb ll 0 then 1 else ll in
     let '(fl, w1) := tick w in
     if fl then (Err, w1) else
     match list_log_gz (woff w1) (c_spec c) (fixed_of c w1) (wfs w1) flt with
     | None => (Panic, w1)
     | Some files =>
       let '(ok0, w1', files') := remove_redundant w1 (redundant_gz files) files in
       if negb ok0 then (Err, w1') else
       let '(ok, w2) := cleanup_loop w1' files' 0 ll (ll + cl) d in
       ((if ok then Ok tt else Err), w2)
     end) = (r, w)).
  { intros ll cl. cbn zeta. rewrite tick_dead by assumption.
    destruct (list_log_gz (woff w) (c_spec c) (fixed_of c w) (wfs w) flt) as [files|]; [|eauto].
    destruct (remove_redundant_dead w H (redundant_gz files) files) as [ok0 [fl E0]]. rewrite E0.
    destruct ok0; cbn [negb]; [|eauto].
    match goal with |- context [cleanup_loop w fl 0 ?a ?b d] => destruct (cleanup_loop_dead w H fl 0 a b d) as [ok E1] end.
    rewrite E1. eauto. }
  destruct k as [|a|b|a b]; [eauto | apply X | apply X | apply X].
Qed.

Lemma with_listing_dead {A} w (g : world -> option A) : dead w -> exists r, with_listing w g = (r, w).
Proof. intros H. unfold with_listing. rewrite tick_dead by assumption. destruct (g w); eauto. Qed.

Lemma index_for_rcurrent_dead c w o rot : dead w -> exists r, index_for_rcurrent c w o rot = (r, w).
Proof.
  intros H. unfold index_for_rcurrent.
  assert (X : forall idx, exists r,
    (if rot then
      let '(r, w1) := p_rename w (name_of c w (Some cur_infix)) (name_of c w (Some (number_infix idx))) in
      match r with ROk => (Ok (idx + 1)%N, w1) | RNotFound => (Ok idx, w1) | RErr => (Err, w1) end
     else (Ok idx, w)) = (r, w)).
  { intros idx. destruct rot; [|eauto].
    destruct (p_rename_dead w (name_of c w (Some cur_infix)) (name_of c w (Some (number_infix idx))) H) as [r E].
    rewrite E. destruct r; eauto. }
  destruct o as [i|]; [apply X|].
  match goal with |- context [with_listing w ?g] => destruct (with_listing_dead w g H) as [r E]; rewrite E end.
  destruct r; [apply X | eauto | eauto].
Qed.

Lemma collision_free_dead c w i : dead w -> exists r, collision_free c w i = (r, w).
Proof.
  intros H. unfold collision_free. rewrite !tick_dead by assumption.
  destruct (collision_free_infix (woff w) (c_spec c) (fixed_of c w) (wfs w) i) as [[x|]|]; eauto.
Qed.

Lemma creation_ts_dead c w cur rot od fmt : dead w -> exists r, creation_ts_of_current c w cur rot od fmt = (r, w).
Proof.
  intros H. unfold creation_ts_of_current. destruct rot; [|eauto].
  match goal with |- context [collision_free c w ?i] => destruct (collision_free_dead c w i H) as [r E]; rewrite E end.
  destruct r as [infix| |]; [|eauto|eauto].
  match goal with |- context [p_rename w ?a ?b] => destruct (p_rename_dead w a b H) as [rr E2]; rewrite E2 end.
  destruct rr; eauto.
Qed.

Lemma latest_ts_dead c w rot fmt : dead w -> exists r, latest_timestamp_file c w rot fmt = (r, w).
Proof. intros H. unfold latest_timestamp_file. destruct rot; [eauto|]. apply with_listing_dead. assumption. Qed.

Lemma roll_new_dead w crit app path : dead w -> exists r, roll_new w crit app path = (r, w).
Proof.
  intros H. unfold roll_new. destruct app.
  - rewrite tick_dead by assumption. destruct (file_of (wfs w) path); eauto.
  - eauto.
Qed.

Lemma init_naming_dead c w n : dead w -> exists r, init_naming c w n = (r, w).
Proof.
  intros H. unfold init_naming.
  assert (X1 : forall fmt, exists r,
    bind (latest_timestamp_file c w (negb (c_append c)) fmt)
         (fun ts w1 =>
            let infix := infix_from_ts c w1 fmt ts in
            bind (collision_free c w1 infix)
                 (fun next w2 =>
                    if c_append c then
                      match newest_of_next infix next with
                      | None => (Ok (NSTs ts None fmt, next), w2)
                      | Some newest =>
                        match lookup (wfs w2) (name_of c w2 (Some newest)) with
                        | Some _ => (Ok (NSTs ts None fmt, newest), w2)
                        | None => (Ok (NSTs ts None fmt, next), w2)
                        end
                      end
                    else (Ok (NSTs ts None fmt, next), w2))) = (r, w)).
  { intros fmt. destruct (latest_ts_dead c w (negb (c_append c)) fmt H) as [r E]. rewrite E.
    destruct r as [ts| |]; cbn [bind]; [|eauto|eauto].
    destruct (collision_free_dead c w (infix_from_ts c w fmt ts) H) as [r2 E2]. rewrite E2.
    destruct r2 as [next| |]; cbn [bind]; [|eauto|eauto].
    destruct (c_append c); [|eauto].
    destruct (newest_of_next (infix_from_ts c w fmt ts) next) as [nw|]; [|eauto].
    destruct (lookup (wfs w) (name_of c w (Some nw))); eauto. }
  assert (X2 : forall cur fmt, exists r,
    bind (creation_ts_of_current c w cur (negb (c_append c)) None fmt)
         (fun ts w1 => (Ok (NSTs ts (Some cur) fmt, cur), w1)) = (r, w)).
  { intros cur fmt. destruct (creation_ts_dead c w cur (negb (c_append c)) None fmt H) as [r E]. rewrite E.
    destruct r; cbn [bind]; eauto. }
  destruct n as [| |[cur|] fmt| |]; try apply X1; try apply X2.
  - destruct (index_for_rcurrent_dead c w None (negb (c_append c)) H) as [r E]. rewrite E. destruct r; cbn [bind]; eauto.
  - match goal with |- context [with_listing w ?g] => destruct (with_listing_dead w g H) as [r E]; rewrite E end.
    destruct r; cbn [bind]; eauto.
Qed.

(* all that a dead process still changes in the world is the counter of queued cleanup requests *)
Lemma set_acts_id w : set_acts w (wacts w) = w.
Proof. destruct w. reflexivity. Qed.

Lemma frozen_set_acts w n : dead w -> frozen w (set_acts w n).
Proof. intros H. split; [exact H | reflexivity]. Qed.

Lemma cleanup_or_queue_dead c w bg k flt d : dead w -> exists r n, cleanup_or_queue c w bg k flt d = (r, set_acts w n).
Proof.
  intros H. unfold cleanup_or_queue. destruct (cleanup_impl_dead c w k flt d H) as [r E].
  assert (U : exists (r : res unit) n, (Ok tt, w) = (r, set_acts w n)) by (exists (Ok tt), (wacts w); rewrite set_acts_id; reflexivity).
  destruct bg.
  - destruct k as [|a|b|a b]; [exact U| | |].
    all: destruct (Nat.eqb (wacts w) 1); [exact U|].
    all: rewrite E; destruct r; [exact U | exact U | eauto].
  - rewrite E. exists r, (wacts w). rewrite set_acts_id. reflexivity.
Qed.

Lemma initialize_dead c w : dead w -> exists r n, initialize c w = (r, set_acts w n).
Proof.
  intros H. assert (U : forall A (r : res A), exists r' n, (r, w) = (r', set_acts w n)) by (intros A r; exists r, (wacts w); rewrite set_acts_id; reflexivity).
  unfold initialize. destruct (c_rot c) as [[[crit nam] k]|].
  - destruct (init_naming_dead c w nam H) as [r E]. rewrite E.
    destruct r as [[ns infix]| |]; cbn [bind]; [|apply U..].
    destruct (open_log_file_dead c w (Some infix) H) as [r2 E2]. rewrite E2.
    destruct r2 as [[wr path]| |]; cbn [bind]; [|apply U..].
    destruct (roll_new_dead w crit (c_append c) path H) as [r3 E3]. rewrite E3.
    destruct r3 as [roll| |]; cbn [bind]; [|apply U..].
    assert (X : exists r4, match k with KNever => (Ok tt, w) | _ => cleanup_impl c w k (ns_filter ns) (if naming_writes_direct nam then Some path else None) end = (r4, w)).
    { destruct (cleanup_impl_dead c w k (ns_filter ns) (if naming_writes_direct nam then Some path else None) H) as [r4 E4]. destruct k; eauto. }
    destruct X as [r4 E4]. rewrite E4.
    destruct r4; cbn [bind]; [|apply U..].
    destruct (match k with KNever => false | _ => c_bg c end); [eauto | apply U].
  - destruct (open_log_file_dead c w None H) as [r E]. rewrite E.
    destruct r; cbn [bind]; apply U.
Qed.

Lemma initialize_dies c w crit nam k ns infix w1 ro w2 : c_rot c = Some (crit, nam, k) ->
  init_naming c w nam = (Ok (ns, infix), w1) -> open_log_file c w1 (Some infix) = (ro, w2) -> dead w2 ->
  exists r n, initialize c w = (r, set_acts w2 n).
Proof.
  intros Hr E1 E2 H. assert (U : forall A (r : res A), exists r' n, (r, w2) = (r', set_acts w2 n))
    by (intros A r; exists r, (wacts w2); rewrite set_acts_id; reflexivity).
  unfold initialize. rewrite Hr, E1. cbn [bind]. rewrite E2.
  destruct ro as [[wr path]| |]; cbn [bind]; [|apply U..].
  destruct (roll_new_dead w2 crit (c_append c) path H) as [r3 E3]. rewrite E3.
  destruct r3 as [roll| |]; cbn [bind]; [|apply U..].
  assert (X : exists r4, match k with KNever => (Ok tt, w2) | _ => cleanup_impl c w2 k (ns_filter ns) (if naming_writes_direct nam then Some path else None) end = (r4, w2)).
  { destruct (cleanup_impl_dead c w2 k (ns_filter ns) (if naming_writes_direct nam then Some path else None) H) as [r4 E4]. destruct k; eauto. }
  destruct X as [r4 E4]. rewrite E4.
  destruct r4; cbn [bind]; [|apply U..].
  destruct (match k with KNever => false | _ => c_bg c end); [eauto | apply U].
Qed.

Lemma naming_step_dead c w ns : dead w -> exists r ns1, naming_step c w ns = (r, w, ns1).
Proof.
  intros H. unfold naming_step. destruct ns as [ts [cur|] fmt|idx|idx].
  - destruct (creation_ts_dead c w cur true (Some ts) fmt H) as [r E]. rewrite E. destruct r; eauto.
  - destruct (collision_free_dead c w (infix_from_ts c w fmt (wnow w)) H) as [r E]. rewrite E. destruct r; eauto.
  - destruct (index_for_rcurrent_dead c w (Some idx) true H) as [r E]. rewrite E. destruct r; eauto.
  - eauto.
Qed.

Lemma mount_tail_dead c w rs wr path ns1 r : dead w -> exists r' n st', mount_tail c w rs wr path ns1 r = (r', set_acts w n, st').
Proof.
  intros H. assert (U : forall r' st', exists (r'' : res unit) n (st'' : inner), (r', w, st') = (r'', set_acts w n, st''))
    by (intros r' st'; exists r', (wacts w), st'; rewrite set_acts_id; reflexivity).
  unfold mount_tail. destruct r as [infix| |]; [|apply U..].
  destruct (open_log_file_dead c w (Some infix) H) as [r2 E2]. rewrite E2.
  destruct r2 as [[wr' path']| |]; [|apply U..].
  destruct (w_flush_dead w wr H) as [wra Ef]. rewrite Ef. cbv beta iota zeta. rewrite w_drop_dead by assumption.
  destruct (cleanup_or_queue_dead c w (rs_bg rs) (rs_cleanup rs) (ns_filter ns1) (if ns_writes_direct ns1 then Some path' else None) H) as [rc [n Ec]].
  rewrite Ec. eauto.
Qed.

Lemma mount_next_dead c w st force : dead w -> exists r n st', mount_next c w st force = (r, set_acts w n, st').
Proof.
  intros H. assert (U : exists (r : res unit) n (st' : inner), (Ok tt, w, st) = (r, set_acts w n, st'))
    by (exists (Ok tt), (wacts w), st; rewrite set_acts_id; reflexivity).
  destruct st as [|[rs|] wr path]; [exact U | | exact U].
  destruct (force || rotation_necessary w (rs_roll rs)) eqn:E; [|rewrite mount_next_idle by exact E; exact U].
  rewrite mount_next_eq by exact E. destruct (naming_step_dead c w (rs_naming rs) H) as [r [ns1 En]]. rewrite En.
  apply mount_tail_dead. exact H.
Qed.

Lemma flush_state_dead s w : dead w -> exists ok s', flush_state s w = (ok, w, s').
Proof.
  intros H. unfold flush_state. destruct (f_inner s) as [|o wr p]; [eauto|].
  destruct (w_flush_dead w wr H) as [wr' E]. rewrite E. eauto.
Qed.

Lemma wb_tail_dead s b r1 w1 st1 rotating : dead w1 -> exists r s', wb_tail s b r1 w1 st1 rotating = (r, w1, s', rotating).
Proof.
  intros H. unfold wb_tail. destruct r1; [| |eauto].
  - cbv zeta. destruct st1 as [|o wr p]; [eauto|].
    destruct (w_write_dead w1 wr b H) as [wr' Ew]. rewrite Ew. eauto.
  - cbv zeta. rewrite report_dead by assumption. destruct st1 as [|o wr p]; [eauto|].
    destruct (w_write_dead w1 wr b H) as [wr' Ew]. rewrite Ew. eauto.
Qed.

Lemma wb_active_dead s b w0 st0 : dead w0 -> exists r n s' rot, wb_active s b w0 st0 = (r, set_acts w0 n, s', rot).
Proof.
  intros H. unfold wb_active. destruct (mount_next_dead (f_cfg s) w0 st0 false H) as [r1 [n [st1 E1]]]. rewrite E1.
  destruct (wb_tail_dead s b r1 (set_acts w0 n) st1 (match st0 with Active (Some rs) _ _ => rotation_necessary w0 (rs_roll rs) | _ => false end) H)
    as [r [s' ET]]. rewrite ET. eauto.
Qed.

Lemma wb_initial_dead_acts s w b r0 w0 : f_inner s = Initial -> initialize (f_cfg s) w = (r0, w0) -> dead w0 ->
  exists r n s' rot, write_buffer s w b = (r, set_acts w0 n, s', rot).
Proof.
  intros Hi E H0. rewrite write_buffer_eq, Hi, E.
  destruct r0 as [i| |]; [apply wb_active_dead; exact H0| |]; eexists _, (wacts w0), _, _; rewrite set_acts_id; reflexivity.
Qed.

Lemma write_buffer_dead s w b : dead w -> exists r n s' rot, write_buffer s w b = (r, set_acts w n, s', rot).
Proof.
  intros H. destruct (f_inner s) as [|o wr p] eqn:Ei.
  - destruct (initialize_dead (f_cfg s) w H) as [r0 [n0 E0]].
    destruct (wb_initial_dead_acts s w b r0 _ Ei E0 H) as [r [n [s' [rot E]]]]. exists r, n, s', rot. exact E.
  - rewrite write_buffer_eq, Ei. apply wb_active_dead. exact H.
Qed.

Lemma shutdown_state_dead s w : dead w -> exists s', shutdown_state s w = (w, s').
Proof.
  intros H. unfold shutdown_state, drain_acts. destruct (f_inner s) as [|o wr p]; [eauto|].
  destruct (w_flush_dead w wr H) as [wr' E]. rewrite E. eauto.
Qed.

(* ------------------------------------------------------------------ one basic operation of a dead process *)
Definition kbasic_op (o : op) : Prop :=
  match o with OWrite _ | OPlain _ | OFlush | OTrigger | OTick _ | OSnap => True | _ => False end.

Definition ticked (w : world) (o : op) : world := match o with OTick dt => set_now w (wnow w + dt) | _ => w end.

Lemma sync_step_dead x o : dead (s_w x) -> kbasic_op o -> exists n, s_w (fst (sync_step x o)) = set_acts (ticked (s_w x) o) n.
Proof.
  intros H Ho. assert (U : exists n, s_w x = set_acts (s_w x) n) by (exists (wacts (s_w x)); rewrite set_acts_id; reflexivity).
  destruct o; try contradiction; cbn [sync_step ticked].
  - destruct (s_flw x) as [s|]; [|exact U]. destruct (f_poisoned s); [exact U|].
    destruct (write_buffer_dead s (s_w x) (s_tl x ++ b) H) as [r [n [s' [rot E]]]]. rewrite E. cbn [fst s_w].
    destruct r; eauto. rewrite (report_dead EWrite (set_acts (s_w x) n) H). eauto.
  - destruct (s_flw x) as [s|]; [|exact U]. destruct (f_poisoned s); [exact U|].
    destruct (write_buffer_dead s (s_w x) b H) as [r [n [s' [rot E]]]]. rewrite E. cbn [fst s_w]. eauto.
  - destruct (s_flw x) as [s|]; [|exact U]. destruct (f_poisoned s); [exact U|].
    destruct (flush_state_dead s (s_w x) H) as [ok [s' E]]. rewrite E. exact U.
  - destruct (s_flw x) as [s|]; [|exact U]. destruct (f_poisoned s); [exact U|].
    destruct (mount_next_dead (f_cfg s) (s_w x) (f_inner s) true H) as [r [n [st' E]]]. rewrite E. cbn [fst s_w]. eauto.
  - cbn [fst s_w]. exists (wacts (s_w x)). destruct (s_w x); reflexivity.
  - exact U.
Qed.

Lemma async_consume_dead x s m : dead (s_w x) -> exists n, s_w (async_consume x s m) = set_acts (s_w x) n.
Proof.
  intros H. assert (U : exists n, s_w x = set_acts (s_w x) n) by (exists (wacts (s_w x)); rewrite set_acts_id; reflexivity).
  unfold async_consume. destruct m.
  - destruct (write_buffer_dead s (s_w x) b H) as [r [n [s' [rot E]]]]. rewrite E. cbn [s_w].
    destruct r; eauto. rewrite (report_dead EWrite (set_acts (s_w x) n) H). eauto.
  - destruct (flush_state_dead s (s_w x) H) as [ok [s' E]]. rewrite E. cbn [s_w].
    destruct ok; [|rewrite report_dead by assumption]; exact U.
  - destruct (shutdown_state_dead s (s_w x) H) as [s' E]. rewrite E. exact U.
Qed.

Lemma async_send_dead x s m cd : dead (s_w x) -> exists n, s_w (fst (async_send x s m cd)) = set_acts (s_w x) n.
Proof.
  intros H. assert (U : exists n, s_w x = set_acts (s_w x) n) by (exists (wacts (s_w x)); rewrite set_acts_id; reflexivity).
  unfold async_send. destruct (s_dead x); [exact U|]. destruct (f_poisoned s); [exact U|]. apply async_consume_dead. exact H.
Qed.

Lemma dead_step_acts x o : dead (s_w x) -> kbasic_op o -> exists n, s_w (fst (step x o)) = set_acts (ticked (s_w x) o) n.
Proof.
  intros H Ho. unfold step.
  assert (EA : s_w (apply_start x o) = s_w x).
  { unfold apply_start. destruct (s_flw x) as [s|]; [|reflexivity]. destruct (names_computed o && negb (f_poisoned s)); reflexivity. }
  set (y := apply_start x o) in *. rewrite <- EA in *. clearbody y.
  unfold step_core. destruct (s_flw y) as [s|] eqn:Es; [|apply sync_step_dead; assumption].
  destruct (is_async s); [|apply sync_step_dead; assumption].
  destruct o; try contradiction; cbn [async_step]; try (apply sync_step_dead; assumption); apply async_send_dead; assumption.
Qed.

(* C11 on the level of operations *)
Theorem dead_step x o : dead (s_w x) -> kbasic_op o -> frozen (s_w x) (s_w (fst (step x o))).
Proof.
  intros H Ho. destruct (dead_step_acts x o H Ho) as [n E]. rewrite E. destruct o; (split; [exact H | reflexivity]).
Qed.

Lemma dead_run : forall ops x, dead (s_w x) -> Forall kbasic_op ops -> frozen (s_w x) (s_w (fst (run x ops))).
Proof.
  induction ops as [|o r IH]; intros x H Hb; [apply frozen_refl; assumption|].
  inversion Hb as [|o' r' Ho Hr]; subst. cbn [run].
  pose proof (dead_step x o H Ho) as F1. destruct (step x o) as [x1 ob]. cbn [fst] in F1.
  specialize (IH x1 (proj1 F1) Hr). destruct (run x1 r) as [x2 obs]. cbn [fst] in *.
  exact (frozen_trans _ _ _ F1 IH).
Qed.

Lemma wb_initial_dead s w b r0 w0 : f_inner s = Initial -> initialize (f_cfg s) w = (r0, w0) -> dead w0 ->
  exists r w' s' rot, write_buffer s w b = (r, w', s', rot) /\ frozen w0 w'.
Proof.
  intros Hi E H0. destruct (wb_initial_dead_acts s w b r0 w0 Hi E H0) as [r [n [s' [rot Ew]]]].
  eexists _, _, _, _. split; [exact Ew | apply frozen_set_acts; exact H0].
Qed.

Lemma dead_not_alive w : dead w -> alive w = false.
Proof. intros [K _]. unfold alive. rewrite K. reflexivity. Qed.

Print Assumptions dead_step.
